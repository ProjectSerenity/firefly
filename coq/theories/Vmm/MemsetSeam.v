(** The kernel.Memset seam of the page-table ties is the translated Memset.

    The theorems of Vmm/PdtTrans.v, MapTrans.v, ZeroTrans.v treat kernel.Memset(addr, 0, mm.PageSize) as a seam whose
    effect is given by the oracle [PdtTrans.o_memset]: "the frame the page at [addr] resolves to becomes all zero, nothing
    else changes".  Here that oracle is connected to the code: on ANY byte memory in which the page is the window
    [base, base + 4096), the regenerated Memset (Gen/Trans_kernel_mem.v, tied to kernel/mem_util.go by
    Kernel/MemUtilTrans.v and proved correct in Kernel/MemUtilProofs.v) leaves exactly the bytes of the frame the oracle
    produces in that window - 512 little-endian zero words - and every byte outside the window as it was.  What remains
    assumed is only the view itself: that the bytes the CPU addresses at [addr .. addr+4095] are the bytes of the frame the
    MMU model resolves [addr] to. *)
From Coq Require Import NArith ZArith List Bool Lia.
From FF Require Import Lib.Std Lib.Word Lib.GoOps Gen.Consts_mm_vmm Gen.Trans_kernel_mem Kernel.MemUtil Kernel.MemUtilProofs Kernel.MemUtilTrans.
From FF Require Import Vmm.Pt Vmm.PtMem.
From FF Require Vmm.PdtTrans.
Module P := FF.Vmm.PdtTrans.
Import ListNotations.
Local Open Scope N_scope.

(** the 8 bytes of a 64-bit word, least significant first (x86-64) *)
Definition bytes_of_word (w : N) : list N :=
  map (fun k => (w / 2 ^ (8 * k)) mod 256) [0; 1; 2; 3; 4; 5; 6; 7].

(** the 4096 bytes of frame [f] *)
Definition frame_bytes (m : pmem) (f : N) : list N :=
  flat_map (fun i => bytes_of_word (rd m f (N.of_nat i))) (seq 0 512).

Lemma zero_frame_bytes_gen m pf l :
  flat_map (fun i => bytes_of_word (rd (zero m pf) pf (N.of_nat i))) l = repeat 0 (8 * length l).
Proof.
  induction l as [|i l IH]; [reflexivity|].
  cbn [flat_map length]. rewrite IH, rd_zero, N.eqb_refl.
  replace (8 * S (length l))%nat with (8 + 8 * length l)%nat by lia. reflexivity.
Qed.

Lemma zero_frame_bytes m pf : frame_bytes (zero m pf) pf = repeat 0 4096.
Proof. unfold frame_bytes. rewrite zero_frame_bytes_gen, seq_length. reflexivity. Qed.

Lemma skipn_app_len {A} n (l1 l2 : list A) : length l1 = n -> skipn n (l1 ++ l2) = l2.
Proof. intros <-. apply skipn_len_app. Qed.

Lemma firstn_app_len {A} n (l1 l2 : list A) : length l1 = n -> firstn n (l1 ++ l2) = l1.
Proof. intros <-. apply firstn_len_app. Qed.

Theorem memset_seam_is_memset s a pf tr0 bm base trb :
  resolve_page s a = Some pf -> (base + 4096 <= length bm)%nat ->
  exists s' bm',
    P.o_memset (P.ev_memset a :: tr0) s = Some (s', tt) /\
    go_kernel_Memset 64 (mk_go_kernel_world trb bm) (N.of_nat base) 0 mm_PageSize = GOk (mk_go_kernel_world trb bm', tt) /\
    firstn 4096 (skipn base bm') = frame_bytes (mem s') pf /\
    firstn base bm' = firstn base bm /\ skipn (base + 4096) bm' = skipn (base + 4096) bm /\ length bm' = length bm /\
    (forall f i, f <> pf -> rd (mem s') f i = rd (mem s) f i).
Proof.
  (* the page size as a variable [n]: as a unary number it is a large term, and the goal has many copies of it *)
  assert (En : N.to_nat mm_PageSize = 4096%nat) by reflexivity.
  pose proof (zero_frame_bytes (mem s) pf) as Hz.
  revert En Hz. generalize 4096%nat. intros n En Hz Hr Hlen.
  exists (set_mem s (zero (mem s) pf)), (firstn base bm ++ repeat 0 n ++ skipn (base + n) bm).
  assert (Hfl : length (firstn base bm) = base) by (rewrite firstn_length; lia).
  split.
  { unfold P.o_memset, P.ev_memset. change ((0 =? 0) && (mm_PageSize =? mm_PageSize)) with true. cbv iota.
    rewrite Hr. reflexivity. }
  split.
  { rewrite <- En in Hlen |- *. apply memset_translated_fills_exactly; [discriminate | reflexivity | exact Hlen]. }
  split.
  { cbn [mem set_mem]. rewrite Hz.
    rewrite (skipn_app_len base _ _ Hfl). apply (firstn_app_len n). apply repeat_length. }
  split.
  { apply (firstn_app_len base). exact Hfl. }
  split.
  { rewrite app_assoc. apply (skipn_app_len (base + n)). rewrite app_length, repeat_length, Hfl. reflexivity. }
  split.
  { rewrite !app_length, repeat_length, skipn_length, Hfl. lia. }
  intros f i Hf. cbn [mem set_mem]. rewrite rd_zero. destruct (N.eqb_spec f pf); [contradiction | reflexivity].
Qed.
