(** C06 [zero_frame_inv]: over any history of mapping-interface calls and faults the zero frame is never
    mapped writable and its contents stay zero. *)
From Coq Require Import NArith ZArith Lia List Bool.
From Coq Require Import ZifyBool ZifyN ZifyNat.
From FF Require Import Lib.Word Gen.Consts_mm_vmm Vmm.Region Vmm.Pt Vmm.PtMem Vmm.PtArith Vmm.PtTree Vmm.PtMap Vmm.PtOps Vmm.PtTheorems Vmm.PtPdt Vmm.PtFault Vmm.PtCow.
Import ListNotations.
Local Open Scope N_scope.

Definition rw_bit (fl : N) : bool := N.testbit fl 1.

Lemma wants_rw_bit flags : wants_rw flags = N.testbit flags 1.
Proof.
  unfold wants_rw. rewrite flag_rw_val. change 2 with (2 ^ 1).
  destruct (N.testbit flags 1) eqn:E.
  - apply negb_true_iff. apply N.eqb_neq. intros H. apply (f_equal (fun x => N.testbit x 1)) in H.
    rewrite N.land_spec, E, N.pow2_bits_true in H. discriminate.
  - apply negb_false_iff. apply N.eqb_eq. apply N.bits_inj. intros n. rewrite N.land_spec, N.bits_0.
    destruct (N.eq_dec n 1) as [->|Hn]; [rewrite E; reflexivity|]. rewrite N.pow2_bits_false by congruence. apply andb_false_r.
Qed.

(** the invariant *)
Record ZInv (s : st) (A : N) (own : ownmap) : Prop := {
  z_inv : Inv s A A own;
  z_prot : prot s = true;
  z_own : own (zf s) = None;
  z_orc : ~ In (zf s) (orc s);
  z_backed : backed s (zf s) = true;
  z_zero : forall i, ent s (zf s) i = 0;
  z_ro : forall q fl, hw_idx q 0 <> 511 -> translation s A q = Some (zf s, fl) -> N.testbit fl 1 = false
}.

Lemma translation_of_entry s A q e :
  aspace s A q = Some e -> translation s A q = if hw_P e then Some (hw_frame e, N.ldiff e vmm_ptePhysPageMask) else None.
Proof. unfold translation. intros ->. reflexivity. Qed.

(** Map (any page outside the recursive window, any frame below 2^40, any flag bits) *)
Lemma zinv_map s A own page frame flags :
  ZInv s A own -> hw_idx page 0 <> 511 -> frame < 2 ^ 40 -> N.land flags vmm_ptePhysPageMask = 0 ->
  exists s' err own', map_page page frame flags s = Ok (s', err) /\ ZInv s' A own'.
Proof.
  intros [HI Hp Hoz Hnz Hbz Hzz Hro] H511 Hf Hfl.
  destruct (zero_guard s frame flags) eqn:Hg.
  { exists s, E_ZERO_RW, own. split; [apply map_page_guarded; exact Hg | split; assumption]. }
  destruct (map_ok s A A own page frame flags HI H511 Hg) as
      (s' & err & own' & Hrun & HI' & Henv & Herr & Hok & Hfail & Hfr & _ & (n & Hn & Hown) & _).
  exists s', err, own'. split; [exact Hrun|].
  destruct Henv as (E1 & E2 & E3 & E4 & E5 & Ez & Ep & _).
  assert (Hoz': own' (zf s) = None).
  { destruct (Hown (zf s)) as [E | (_ & Hin & _)]; [rewrite E; exact Hoz | exfalso; apply Hnz; eapply in_firstn; exact Hin]. }
  split.
  - exact HI'.
  - rewrite Ep. exact Hp.
  - rewrite Ez. exact Hoz'.
  - rewrite Ez, Hn. intros Hin. apply Hnz. eapply in_skipn; exact Hin.
  - rewrite Ez. unfold backed in *. rewrite E1, E2. exact Hbz.
  - intros i. rewrite Ez, Hfr by exact Hoz'. apply Hzz.
  - intros q fl Hq Htr. rewrite Ez in Htr.
    destruct (N.eq_dec err 0) as [E0|E0].
    + destruct (Hok E0) as (Ha & Hoth & _).
      destruct (list_eq_dec N.eq_dec (ixs q) (ixs page)) as [Esame|Hdiff].
      * (* the mapped page itself *)
        assert (Ha': aspace s' A q = Some (set_flags (set_frame 0 frame) flags)) by (unfold aspace in *; rewrite Esame; exact Ha).
        rewrite (translation_of_entry _ _ _ _ Ha') in Htr.
        destruct (leaf_exact frame flags Hf Hfl) as (_ & L2 & L3 & L4).
        rewrite L2, L3, L4 in Htr. destruct (N.testbit flags 0); [|discriminate].
        injection Htr as Ef Efl. subst fl frame.
        unfold zero_guard in Hg. rewrite Hp, N.eqb_refl in Hg. cbn [andb] in Hg.
        fold (wants_rw flags) in Hg. rewrite wants_rw_bit in Hg. exact Hg.
      * rewrite (Hoth q Hq Hdiff) in Htr. exact (Hro q fl Hq Htr).
    + destruct (Hfail E0) as (Hoth & _). rewrite (Hoth q Hq) in Htr. exact (Hro q fl Hq Htr).
Qed.

Lemma zinv_unmap s A own page :
  ZInv s A own -> hw_idx page 0 <> 511 ->
  exists s' err, unmap_page page s = Ok (s', err) /\ ZInv s' A own.
Proof.
  intros [HI Hp Hoz Hnz Hbz Hzz Hro] H511.
  destruct (unmap_ok s A A own page HI H511) as (s' & err & Hrun & Herr & HI' & Henv & Horc & Hinv & Hok).
  exists s', err. split; [exact Hrun|].
  destruct Herr as [E0|E0].
  - destruct (Hok E0) as (e & _ & _ & Htp & Hoth & _ & Hfr & _).
    destruct Henv as (E1 & E2 & E3 & E4 & E5 & Ez & Ep & _).
    split.
    + exact HI'.
    + rewrite Ep. exact Hp.
    + rewrite Ez. exact Hoz.
    + rewrite Ez, Horc. exact Hnz.
    + rewrite Ez. unfold backed in *. rewrite E1, E2. exact Hbz.
    + intros i. rewrite Ez, Hfr by exact Hoz. apply Hzz.
    + intros q fl Hq Htr. rewrite Ez in Htr.
      destruct (list_eq_dec N.eq_dec (ixs q) (ixs page)) as [Esame|Hdiff].
      * unfold translation, aspace in *. rewrite Esame in Htr. rewrite Htp in Htr. discriminate.
      * unfold translation in Htr. rewrite (Hoth q Hq Hdiff) in Htr. exact (Hro q fl Hq Htr).
  - destruct (Hinv E0) as [Es _]. rewrite Es. split; assumption.
Qed.

Lemma P_RW_mask : N.land P_RW vmm_ptePhysPageMask = 0.
Proof. reflexivity. Qed.

Lemma zinv_map_temp s A own frame :
  ZInv s A own -> frame < 2 ^ 40 ->
  exists s' err pg own', map_temporary frame s = Ok (s', err, pg) /\ ZInv s' A own'.
Proof.
  intros HZ Hf. unfold map_temporary.
  destruct (prot s && (frame =? zf s)) eqn:Hg.
  { exists s, E_ZERO_RW, 0, own. split; [reflexivity | exact HZ]. }
  destruct (zinv_map s A own temp_page frame P_RW HZ temp_idx0 Hf P_RW_mask) as (s' & err & own' & Hrun & HZ').
  rewrite Hrun. destruct (err =? 0); eexists _, _, _, own'; (split; [reflexivity | exact HZ']).
Qed.

(** a fault on a page that shares the zero frame *)
Lemma zinv_fault s A own addr s' :
  ZInv s A own -> hw_idx (page_from_addr addr) 0 <> 511 -> ~ same_page (page_from_addr addr) temp_page ->
  (forall e, cow_pre s A (page_from_addr addr) = Some e -> hw_frame e = zf s) ->
  page_fault addr s = Ok (s', 0) ->
  exists own', ZInv s' A own'.
Proof.
  intros [HI Hp Hoz Hnz Hbz Hzz Hro] H511 Hnt Hshare Hrun.
  destruct (fault_resume_only_cow s A own addr s' HI H511 Hrun) as (e & s1 & cp & s2 & pg & Hpre & Hal & Hmt).
  pose proof (Hshare e Hpre) as Hez.
  destruct (cow_ok s A own addr e s1 cp s2 pg HI H511 Hnt Hpre) as
      (s5 & own' & Hrun5 & HI5 & Henv & Hasp & Hcont & Hoth & Htemp & Hfr & Hocp & _ & (n & Hn) & Hown); try assumption.
  { rewrite Hez. exact Hbz. } { rewrite Hez. exact Hoz. } { rewrite Hez. exact Hnz. }
  rewrite Hrun in Hrun5. injection Hrun5 as E5. subst s5.
  (* the copy frame is not the zero frame: MapTemporary would have refused *)
  assert (Hcpz: cp <> zf s).
  { intros E. unfold alloc in Hal. destruct (orc s) as [|x r]; [discriminate|].
    destruct (x =? 0); [discriminate|]. injection Hal as Es1 Ecp. subst x.
    unfold map_temporary in Hmt. rewrite <- Es1 in Hmt. cbn [prot zf set_orc] in Hmt.
    rewrite Hp, E, N.eqb_refl in Hmt. discriminate. }
  destruct Henv as (E1 & E2 & E3 & E4 & E5 & Ez & Ep & _).
  assert (Hoz': own' (zf s) = None).
  { destruct (Hown (zf s)) as [E | (_ & Hin & _)]; [rewrite E; exact Hoz | exfalso; exact (Hnz Hin)]. }
  exists own'. split.
  - exact HI5.
  - rewrite Ep. exact Hp.
  - rewrite Ez. exact Hoz'.
  - rewrite Ez, Hn. intros Hin. apply Hnz. eapply in_skipn; exact Hin.
  - rewrite Ez. unfold backed in *. rewrite E1, E2. exact Hbz.
  - intros i. rewrite Ez, Hfr; [apply Hzz | exact Hoz' | congruence].
  - intros q fl Hq Htr. rewrite Ez in Htr.
    destruct (list_eq_dec N.eq_dec (ixs q) (ixs (page_from_addr addr))) as [Esame|Hdiff].
    + (* the faulting page now maps the copy frame *)
      exfalso.
      assert (Ha': aspace s' A q = Some (cow_entry e cp)) by (unfold aspace in *; rewrite Esame; exact Hasp).
      rewrite (translation_of_entry _ _ _ _ Ha') in Htr.
      assert (Hcp40: cp < 2 ^ 40).
      { unfold alloc in Hal. destruct (orc s) as [|x r] eqn:Eo; [discriminate|].
        destruct (N.eqb_spec x 0); [discriminate|]. injection Hal as Es1 Ecp. subst x.
        destruct (inv_fresh _ _ _ _ HI) as [_ F2]. destruct (F2 cp) as (Hb & _); [rewrite Eo; left; reflexivity | assumption |].
        eapply backed_lt40; [exact (wf_arena _ _ _ (inv_wf _ _ _ _ HI)) | exact Hb]. }
      destruct (cow_entry_bits e cp Hcp40) as (B1 & B2 & _). rewrite B1, B2 in Htr. injection Htr as Ecp _. congruence.
    + destruct (list_eq_dec N.eq_dec (ixs q) (ixs temp_page)) as [Et|Hdt].
      * unfold translation, aspace in *. rewrite Et in Htr. rewrite Htemp in Htr. discriminate.
      * rewrite (Hoth q Hq Hdiff Hdt) in Htr. exact (Hro q fl Hq Htr).
Qed.

(** * Histories *)
Inductive zop :=
| ZMap (page frame flags : N)
| ZUnmap (page : N)
| ZMapTemp (frame : N)
| ZFault (addr : N).

(** the quantifier's domain for one request in state [s] *)
Definition zdom1 (A : N) (o : zop) (s : st) : Prop :=
  match o with
  | ZMap page frame flags => hw_idx page 0 <> 511 /\ frame < 2 ^ 40 /\ N.land flags vmm_ptePhysPageMask = 0
  | ZUnmap page => hw_idx page 0 <> 511
  | ZMapTemp frame => frame < 2 ^ 40
  | ZFault addr => hw_idx (page_from_addr addr) 0 <> 511 /\ ~ same_page (page_from_addr addr) temp_page /\
                   (forall e, cow_pre s A (page_from_addr addr) = Some e -> hw_frame e = zf s)
  end.

(** one request; [None] = the kernel panicked (the history ends) or a stray access *)
Definition zstep (o : zop) (s : st) : option st :=
  match o with
  | ZMap page frame flags => match map_page page frame flags s with Ok (s', _) => Some s' | Stray => None end
  | ZUnmap page => match unmap_page page s with Ok (s', _) => Some s' | Stray => None end
  | ZMapTemp frame => match map_temporary frame s with Ok (s', _, _) => Some s' | Stray => None end
  | ZFault addr => match page_fault addr s with Ok (s', out) => if out =? 0 then Some s' else None | Stray => None end
  end.

(** every state a history passes through *)
Fixpoint ztrace (ops : list zop) (s : st) : list st :=
  match ops with
  | [] => [s]
  | o :: r => s :: match zstep o s with Some s' => ztrace r s' | None => [] end
  end.

Fixpoint zdom (A : N) (ops : list zop) (s : st) : Prop :=
  match ops with
  | [] => True
  | o :: r => zdom1 A o s /\ match zstep o s with Some s' => zdom A r s' | None => True end
  end.

Theorem zero_frame_inv A ops : forall s own,
  ZInv s A own -> zdom A ops s -> Forall (fun s' => exists own', ZInv s' A own') (ztrace ops s).
Proof.
  induction ops as [|o r IH]; intros s own HZ Hd; cbn [ztrace].
  - constructor; [exists own; exact HZ | constructor].
  - constructor; [exists own; exact HZ|].
    destruct Hd as [Hd1 Hdr].
    destruct o as [page frame flags | page | frame | addr]; cbn [zstep zdom1] in *.
    + destruct Hd1 as (H1 & H2 & H3).
      destruct (zinv_map s A own page frame flags HZ H1 H2 H3) as (s' & err & own' & Hrun & HZ').
      rewrite Hrun in *. exact (IH s' own' HZ' Hdr).
    + destruct (zinv_unmap s A own page HZ Hd1) as (s' & err & Hrun & HZ').
      rewrite Hrun in *. exact (IH s' own HZ' Hdr).
    + destruct (zinv_map_temp s A own frame HZ Hd1) as (s' & err & pg & own' & Hrun & HZ').
      rewrite Hrun in *. exact (IH s' own' HZ' Hdr).
    + destruct Hd1 as (H1 & H2 & H3).
      destruct (page_fault addr s) as [[s' out]|] eqn:Hrun; [|constructor].
      destruct (N.eqb_spec out 0) as [->|]; [|constructor].
      destruct (zinv_fault s A own addr s' HZ H1 H2 H3 Hrun) as (own' & HZ').
      exact (IH s' own' HZ' Hdr).
Qed.
