(** The hand-written models of walk / Map / Unmap / pteForAddress / Translate / MapTemporary (Vmm/Pt.v: [map_page],
    [unmap_page], [pte_walk], [translate], [map_temporary]) against the Gallina translation that gen/gotrans ("memory as
    state" mode, gen/gotrans/ext_mem.go, config vmm_map.json) regenerates from kernel/mm/vmm/{pdt.go,map.go} on every run
    (Gen/Trans_vmm_map.v).

    [walk(virtAddr, walkFn)] is translated with its function parameter as a seam: [walk_is_translation] says that it calls
    [ptePtrFn] and then [walkFn] on exactly the items of [PtAccess.walk_items virtAddr] - (level, address of the level's
    entry in the recursive window) - in order, until [walkFn] returns false, for EVERY (stateful) closure.  The closures
    that Map, Unmap, pteForAddress pass to walk are translated as the body of [gvisit .. (walk_items ..)] (Lib/GoVisit.v),
    with every [*pte] access a load / store resolved by the MMU model at the time of the access (Vmm/PtAccess.v). *)
From Coq Require Import NArith ZArith String List Bool Lia FMapPositive.
From Coq Require Import ZifyBool ZifyN ZifyNat.
From FF Require Import Lib.Word Lib.GoOps Lib.GoOpsProofs Lib.GoVisit Gen.Consts_mm_vmm Gen.Trans_vmm_map.
From FF Require Import Vmm.Pt Vmm.PtMem Vmm.PtAccess Vmm.PtArith.
From FF Require Vmm.PdtTrans Vmm.PtTrans.
Module P := FF.Vmm.PdtTrans.
Import ListNotations.
Local Open Scope N_scope.

Notation W := mk_go_vmm_world (only parsing).

(** ---- walk ---- *)
Definition o_id (tr : list gcall) (s : st) : option (st * N) :=
  match tr with GCall _ [GNum a] :: _ => Some (s, a) | _ => None end.
Definition o_clo (clo : N -> N -> st -> option (st * bool)) (tr : list gcall) (s : st) : option (st * bool) :=
  match tr with GCall _ [GNum l; GNum p] :: _ => clo l p s | _ => None end.
Definition ev_ptr (a : N) : gcall := GCall "ptePtrFn" [GNum a].
Definition ev_walkfn (l p : N) : gcall := GCall "walkFn" [GNum l; GNum p].

Fixpoint walk_model (clo : N -> N -> st -> option (st * bool)) (items : list (N * N)) (tr : list gcall) (s : st)
  : gres (go_vmm_world * unit) :=
  match items with
  | [] => GOk (W tr s, tt)
  | (l, ea) :: rest =>
      match clo l ea s with
      | None => GPanic
      | Some (s', true) => walk_model clo rest (ev_walkfn l ea :: ev_ptr ea :: tr) s'
      | Some (s', false) => GOk (W (ev_walkfn l ea :: ev_ptr ea :: tr) s', tt)
      end
  end.

Lemma entry_addr_trans ta va sh bits :
  gw 64 (ta + gw 64 (N.shiftl (N.land (N.shiftr va sh) (N.shiftl 1 bits - 1)) mm_PointerShift)) = entry_addr ta va sh bits.
Proof. unfold entry_addr, entry_index, add64, shl64. rewrite !gw64. reflexivity. Qed.

Lemma shl64_trans a k : gw 64 (N.shiftl a k) = shl64 a k.
Proof. unfold shl64. apply gw64. Qed.

Lemma level_lookup l sh bits :
  nth_error [(39, 9); (30, 9); (21, 9); (12, 9)] (N.to_nat l) = Some (sh, bits) -> l < 4 ->
  (l <? vmm_pageLevels) = true /\ gidx vmm_pageLevelShifts l = Some sh /\ gidx vmm_pageLevelBits l = Some bits.
Proof.
  intros Hn Hl. assert (Hc : l = 0 \/ l = 1 \/ l = 2 \/ l = 3) by lia.
  destruct Hc as [ -> | [ -> | [ -> | -> ] ] ]; cbn in Hn; injection Hn as <- <-; repeat split.
Qed.

Theorem walk_is_translation clo va s tr0 fuel :
  (5 <= fuel)%nat ->
  go_vmm_walk fuel (W tr0 s) va o_id (o_clo clo) = walk_model clo (walk_items va) tr0 s.
Proof.
  intros Hf. do 5 (destruct fuel as [|fuel]; [lia|]). clear Hf.
  unfold go_vmm_walk, walk_items. rewrite go_levels_val.
  cbv zeta.
  match goal with |- context [gloop _ ?f0 _] => set (step := f0) end.
  assert (Hstep : forall tr s ea0 ei0 ok0 ta l sh bits,
             nth_error [(39, 9); (30, 9); (21, 9); (12, 9)] (N.to_nat l) = Some (sh, bits) -> l < 4 ->
             step (W tr s, ea0, ei0, l, ok0, ta) =
             let ea := entry_addr ta va sh bits in
             match clo l ea s with
             | None => GPanic
             | Some (s', true) =>
                 GOk (GNext (W (ev_walkfn l ea :: ev_ptr ea :: tr) s', shl64 ea bits, entry_index va sh bits, gw 8 (l + 1), true, shl64 ea bits))
             | Some (s', false) => GOk (GRet (W (ev_walkfn l ea :: ev_ptr ea :: tr) s', tt))
             end).
  { intros tr s1 ea0 ei0 ok0 ta l sh bits Hn Hl.
    destruct (level_lookup l sh bits Hn Hl) as (E1 & E2 & E3).
    unfold step. rewrite E1, E2, !E3. cbv iota beta. rewrite entry_addr_trans, shl64_trans.
    unfold go_vmm_world_seam; cbn [f_world_trace f_world_mem set_f_world_trace set_f_world_mem o_id o_clo].
    cbv zeta. destruct (clo l (entry_addr ta va sh bits) s1) as [[s' [|]]|]; reflexivity. }
  assert (Hbrk : forall w a b c d, step (w, a, b, 4, c, d) = GOk (GBreak (w, a, b, 4, c, d))).
  { intros [tr s1] a b c d. reflexivity. }
  change (gw 8 0) with 0.
  cbn [walk_items_from walk_model].
  change (0 + 1) with 1. change (1 + 1) with 2. change (2 + 1) with 3.
  cbn [gloop]. rewrite (Hstep _ _ _ _ _ _ 0 39 9 eq_refl eq_refl). cbv zeta.
  destruct (clo 0 _ s) as [[s1 [|]]|]; [|reflexivity|reflexivity].
  change (gw 8 (0 + 1)) with 1.
  rewrite (Hstep _ _ _ _ _ _ 1 30 9 eq_refl eq_refl). cbv zeta.
  destruct (clo 1 _ s1) as [[s2 [|]]|]; [|reflexivity|reflexivity].
  change (gw 8 (1 + 1)) with 2.
  rewrite (Hstep _ _ _ _ _ _ 2 21 9 eq_refl eq_refl). cbv zeta.
  destruct (clo 2 _ s2) as [[s3 [|]]|]; [|reflexivity|reflexivity].
  change (gw 8 (2 + 1)) with 3.
  rewrite (Hstep _ _ _ _ _ _ 3 12 9 eq_refl eq_refl). cbv zeta.
  destruct (clo 3 _ s3) as [[s4 [|]]|]; [|reflexivity|reflexivity].
  change (gw 8 (3 + 1)) with 4.
  rewrite Hbrk. reflexivity.
Qed.

(** ---- Map ---- *)
(** the helpers of this translation unit: those of Vmm/PdtTrans.v, and the three pdt.go has no use for *)
Lemma frame_addr_any f : go_mm_Frame_Address f = frame_addr f.
Proof. exact (P.frame_addr_any f). Qed.

Lemma page_addr_any f : go_mm_Page_Address f = frame_addr f.
Proof. exact (P.frame_addr_any f). Qed.

Lemma set_frame_any e f : e < two64 -> go_vmm_pageTableEntry_SetFrame e f = set_frame e f.
Proof. exact (P.set_frame_any e f). Qed.

Lemma set_flags_any e fl : e < two64 -> fl < two64 -> go_vmm_pageTableEntry_SetFlags e fl = set_flags e fl.
Proof. exact (P.set_flags_any e fl). Qed.

Lemma clear_flags_any e fl : e < two64 -> fl < two64 -> go_vmm_pageTableEntry_ClearFlags e fl = clear_flags e fl.
Proof. intros He Hf. apply (PtTrans.pte_helpers_are_translation e fl 0 He Hf P.zero_lt). Qed.

Lemma has_flags_any e fl : e < two64 -> fl < two64 -> go_vmm_pageTableEntry_HasFlags e fl = has_flags e fl.
Proof. intros He Hf. apply (PtTrans.pte_helpers_are_translation e fl 0 He Hf P.zero_lt). Qed.

Lemma pte_frame_any e : e < two64 -> go_vmm_pageTableEntry_Frame e = pte_frame e.
Proof. intros He. apply (PtTrans.pte_helpers_are_translation e 0 0 He P.zero_lt P.zero_lt). Qed.

(** the entry at virtual address [ea], which resolves to word [i] of frame [f], is still found there after it has been
    overwritten with any value *)
Definition entry_stable (s : st) (ea f i : N) : Prop := forall x, resolve (wr_st s f i x) ea = Some (f, i).

(** the condition under which the model of Map (one resolution per level) and the code (one per dereference) agree *)
Fixpoint map_stable (lv : list (N * N)) (level tableAddr va : N) (s : st) : Prop :=
  match lv with
  | [] => True
  | (sh, bits) :: rest =>
      let ea := entry_addr tableAddr va sh bits in
      match resolve s ea with
      | None => True
      | Some (f, i) =>
          if level =? last_level then entry_stable s ea f i
          else
            let e := rd (mem s) f i in
            if has_flags e vmm_FlagHugePage then True
            else if negb (has_flags e vmm_FlagPresent) then
              match alloc s with
              | (s1, None) => True
              | (s1, Some nf) =>
                  entry_stable s1 ea f i /\
                  let s2 := wr_st s1 f i (set_flags (set_frame 0 nf) P_RW) in
                  match resolve_page s2 (shl64 ea (level_bits (level + 1))) with
                  | None => True
                  | Some pf => map_stable rest (level + 1) (shl64 ea bits) va (set_mem s2 (zero (mem s2) pf))
                  end
              end
            else map_stable rest (level + 1) (shl64 ea bits) va s
      end
  end.

Definition o_alloc (_ : list gcall) (s : st) : option (st * (N * option string)) :=
  match alloc s with
  | (s1, None) => Some (s1, (0, P.err_of E_ALLOC))
  | (s1, Some nf) => Some (s1, (nf, None))
  end.

(** forget the trace *)
Definition wmem {A} (r : gres (go_vmm_world * A)) : gres (st * A) :=
  match r with GOk (w, a) => GOk (f_world_mem w, a) | GPanic => GPanic | GFuel => GFuel end.
Definition op_res (r : R (st * N)) : gres (st * option string) :=
  match r with Stray => GPanic | Ok (s', e) => GOk (s', P.err_of e) end.

Lemma alloc_same s s1 r : alloc s = (s1, r) ->
  mem s1 = mem s /\ (forall a, resolve s1 a = resolve s a) /\ (forall a, resolve_page s1 a = resolve_page s a).
Proof.
  unfold alloc. destruct (orc s) as [|x rest]; intros E; injection E as <- _; repeat split.
Qed.

Ltac wsimp := cbn [f_world_trace f_world_mem set_f_world_trace set_f_world_mem].

(** where a walk with [level + |lv| = 4] stands: the leaf level is the last item, an upper level has 9 index bits below it *)
Lemma leaf_is_last level (x : N * N) rest :
  level + N.of_nat (length (x :: rest)) = 4 -> (level =? last_level) = true -> rest = [].
Proof.
  intros Hlen El. apply N.eqb_eq in El. destruct rest; [reflexivity|].
  cbn [length] in Hlen. change last_level with 3 in El. lia.
Qed.

Lemma upper_level level (x : N * N) rest :
  level + N.of_nat (length (x :: rest)) = 4 -> (level =? last_level) = false ->
  level + 1 + N.of_nat (length rest) = 4 /\ rest <> [] /\
  gidx vmm_pageLevelBits (gw 8 (level + 1)) = Some 9 /\ level_bits (level + 1) = 9.
Proof.
  intros Hlen El. apply N.eqb_neq in El. change last_level with 3 in El. cbn [length] in Hlen.
  assert (Hl3 : level = 0 \/ level = 1 \/ level = 2) by lia.
  split; [lia|]. split; [destruct rest; [cbn [length] in Hlen; lia | discriminate]|].
  destruct Hl3 as [ -> | [ -> | -> ] ]; split; reflexivity.
Qed.

(** [map_walk_tr] is [map_walk] (Vmm/Pt.v) with the seam calls written next to it: mm.AllocFrame, nextAddrFn and kernel.Memset
    for every table it creates, flushTLBEntryFn at the leaf; [map_page_tr_model]: forgetting them gives [map_page]. *)
Definition ev_malloc : gcall := GCall "mm.AllocFrame" [].
Definition ev_next (a : N) : gcall := GCall "nextAddrFn" [GNum a].

Fixpoint map_walk_tr (lv : list (N * N)) (level tableAddr va frame flags : N) (s : st) (tr : list gcall) : option (st * N * list gcall) :=
  match lv with
  | [] => Some (s, E_OK, tr)
  | (sh, bits) :: rest =>
      let ea := entry_addr tableAddr va sh bits in
      match resolve s ea with
      | None => None
      | Some (f, i) =>
          if level =? last_level then
            Some (flush (wr_st s f i (set_flags (set_frame 0 frame) flags)) va, E_OK, P.ev_flush va :: tr)
          else
            let e := rd (mem s) f i in
            if has_flags e vmm_FlagHugePage then Some (s, E_HUGE, tr)
            else if negb (has_flags e vmm_FlagPresent) then
              match alloc s with
              | (s1, None) => Some (s1, E_ALLOC, ev_malloc :: tr)
              | (s1, Some nf) =>
                  let s2 := wr_st s1 f i (set_flags (set_frame 0 nf) P_RW) in
                  let next := shl64 ea (level_bits (level + 1)) in
                  match resolve_page s2 next with
                  | None => None
                  | Some pf => map_walk_tr rest (level + 1) (shl64 ea bits) va frame flags (set_mem s2 (zero (mem s2) pf))
                                           (P.ev_memset next :: ev_next next :: ev_malloc :: tr)
                  end
              end
            else map_walk_tr rest (level + 1) (shl64 ea bits) va frame flags s tr
      end
  end.

Definition map_page_tr (page frame flags : N) (s : st) (tr : list gcall) : option (st * N * list gcall) :=
  if prot s && (frame =? zf s) && negb (N.land flags vmm_FlagRW =? 0) then Some (s, E_ZERO_RW, tr)
  else map_walk_tr go_levels 0 vmm_pdtVirtualAddr (frame_addr page) frame flags s tr.

Definition tr_forget (r : option (st * N * list gcall)) : R (st * N) :=
  match r with None => Stray | Some (s, e, _) => Ok (s, e) end.
Definition tr_res (r : option (st * N * list gcall)) : gres (go_vmm_world * option string) :=
  match r with None => GPanic | Some (s, e, tr) => GOk (W tr s, P.err_of e) end.

Lemma map_walk_tr_model lv : forall level ta va frame flags s tr,
  tr_forget (map_walk_tr lv level ta va frame flags s tr) = map_walk lv level ta va frame flags s.
Proof.
  induction lv as [|[sh bits] rest IH]; intros level ta va frame flags s tr; cbn [map_walk_tr map_walk]; [reflexivity|].
  destruct (resolve s _) as [[f i]|]; [|reflexivity].
  destruct (level =? last_level); [reflexivity|].
  destruct (has_flags _ vmm_FlagHugePage); [reflexivity|].
  destruct (negb _); [|apply IH].
  destruct (alloc s) as [s1 [nf|]]; [|reflexivity]. cbv zeta.
  destruct (resolve_page _ _) as [pf|]; [apply IH | reflexivity].
Qed.

Lemma map_page_tr_model page frame flags s tr : tr_forget (map_page_tr page frame flags s tr) = map_page page frame flags s.
Proof. unfold map_page_tr, map_page. destruct (_ && _ && _); [reflexivity | apply map_walk_tr_model]. Qed.

Theorem map_is_translation_calls page frame flags s tr0 :
  flags < two64 -> P.mem_w64 s ->
  map_stable go_levels 0 vmm_pdtVirtualAddr (frame_addr page) s ->
  go_vmm_Map (W tr0 s) page frame flags P.o_flush P.o_memset o_alloc o_id = tr_res (map_page_tr page frame flags s tr0).
Proof.
  intros Hfl Hw Hst. unfold go_vmm_Map, map_page_tr. wsimp.
  destruct (prot s && (frame =? zf s) && negb (N.land flags vmm_FlagRW =? 0)); [reflexivity|].
  rewrite page_addr_any. set (va := frame_addr page) in *.
  cbv zeta.
  match goal with |- context [gvisit ?f _ _] => set (clo := f) end.
  unfold walk_items.
  assert (HI : forall lv level ta s tr,
             level + N.of_nat (length lv) = 4 -> P.mem_w64 s -> map_stable lv level ta va s ->
             match gvisit clo (walk_items_from lv level ta va) (W tr s, None) with
             | GOk st => let '(v_world, v_err) := st in GOk (v_world, v_err)
             | GPanic => GPanic | GFuel => GFuel end = tr_res (map_walk_tr lv level ta va frame flags s tr)).
  2:{ apply HI; [reflexivity | exact Hw | exact Hst]. }
  clear Hw Hst s tr0.
  induction lv as [|[sh bits] rest IH]; intros level ta s tr Hlen Hw Hst.
  { reflexivity. }
  cbn [walk_items_from gvisit map_walk_tr]. cbn [map_stable] in Hst.
  set (ea := entry_addr ta va sh bits) in *.
  unfold clo at 1. cbv beta iota.
  change (gsub 8 vmm_pageLevels 1) with last_level. change (gw 64 0) with 0.
  unfold go_vmm_world_store_virt, go_vmm_world_load_virt, vstore, vload. wsimp.
  destruct (resolve s ea) as [[f i]|] eqn:Er.
  2:{ destruct (level =? last_level); reflexivity. }
  destruct (level =? last_level) eqn:El.
  - (* the leaf: *pte = 0; pte.SetFrame(frame); pte.SetFlags(flags), every access through the entry just written *)
    wsimp. rewrite (Hst 0). wsimp.
    rewrite P.rd_wr_st, (set_frame_any _ frame P.zero_lt), P.wr_st_wr_st, (Hst _). wsimp.
    rewrite P.rd_wr_st, (set_flags_any _ flags (P.set_frame_lt 0 frame P.zero_lt) Hfl), P.wr_st_wr_st.
    unfold go_vmm_world_seam. wsimp. cbn [P.o_flush].
    rewrite (leaf_is_last _ _ _ Hlen El). reflexivity.
  - (* an upper level *)
    destruct (upper_level _ _ _ Hlen El) as (Hlen' & _ & Eb1 & Eb2).
    assert (HH : vmm_FlagHugePage < two64) by reflexivity.
    assert (HP : vmm_FlagPresent < two64) by reflexivity.
    rewrite !(has_flags_any _ _ (Hw f i) HH), !(has_flags_any _ _ (Hw f i) HP).
    set (e := rd (mem s) f i) in *.
    destruct (has_flags e vmm_FlagHugePage). { reflexivity. }
    destruct (negb (has_flags e vmm_FlagPresent)); [|exact (IH _ _ _ _ Hlen' Hw Hst)].
    unfold go_vmm_world_seam at 1. wsimp. unfold o_alloc.
    destruct (alloc s) as [s1 [nf|]] eqn:Ea; [|reflexivity].
    cbn [gerr_eqb negb]. wsimp.
    destruct Hst as [Hes Hst'].
    destruct (alloc_same _ _ _ Ea) as (_ & Ar & _).
    rewrite (Ar ea), Er. wsimp.
    rewrite (Hes 0). wsimp.
    rewrite P.rd_wr_st, (set_frame_any _ nf P.zero_lt), P.wr_st_wr_st, (Hes _). wsimp.
    rewrite P.rd_wr_st. change (N.lor vmm_FlagPresent vmm_FlagRW) with P_RW.
    rewrite (set_flags_any _ P_RW (P.set_frame_lt 0 nf P.zero_lt) P.P_RW_lt), P.wr_st_wr_st.
    set (s2 := wr_st s1 f i (set_flags (set_frame 0 nf) P_RW)) in *.
    rewrite Eb1. rewrite Eb2 in Hst'. rewrite Eb2. cbv iota beta.
    rewrite shl64_trans.
    unfold go_vmm_world_seam. wsimp. cbn [o_id P.o_memset]. wsimp.
    change ((0 =? 0) && (mm_PageSize =? mm_PageSize)) with true. cbv iota.
    destruct (resolve_page s2 (shl64 ea 9)) as [pf|] eqn:Erp; [|reflexivity].
    wsimp.
    apply (IH _ _ _ _ Hlen'); [|exact Hst'].
    apply P.keeps_zero. apply (P.keeps_wr s1 f i); [apply P.link_lt; apply P.P_RW_lt|].
    apply (P.keeps_alloc _ _ _ Ea). exact Hw.
Qed.

Lemma wmem_tr_res r : wmem (tr_res r) = op_res (tr_forget r).
Proof. destruct r as [[[s e] tr]|]; reflexivity. Qed.

Theorem map_is_translation page frame flags s tr0 :
  flags < two64 -> P.mem_w64 s ->
  map_stable go_levels 0 vmm_pdtVirtualAddr (frame_addr page) s ->
  wmem (go_vmm_Map (W tr0 s) page frame flags P.o_flush P.o_memset o_alloc o_id) = op_res (map_page page frame flags s).
Proof.
  intros Hfl Hw Hst.
  rewrite (map_is_translation_calls page frame flags s tr0 Hfl Hw Hst), wmem_tr_res, map_page_tr_model. reflexivity.
Qed.

Theorem map_guard_is_translation page flags s tr0 o1 o2 o3 o4 :
  prot s = true -> N.land flags vmm_FlagRW <> 0 ->
  go_vmm_Map (W tr0 s) page (zf s) flags o1 o2 o3 o4 = GOk (W tr0 s, Some "errAttemptToRWMapReservedFrame"%string).
Proof.
  intros Hp Hf. unfold go_vmm_Map. cbn [f_world_mem]. rewrite Hp, N.eqb_refl.
  apply N.eqb_neq in Hf. rewrite Hf. reflexivity.
Qed.

Theorem unmap_is_translation_calls page s tr0 :
  P.mem_w64 s ->
  go_vmm_Unmap (W tr0 s) page P.o_flush =
  match unmap_page page s with
  | Stray => GPanic
  | Ok (s', e) => GOk (W (if e =? 0 then P.ev_flush (frame_addr page) :: tr0 else tr0) s', P.err_of e)
  end.
Proof.
  intros Hw. unfold go_vmm_Unmap, unmap_page.
  rewrite page_addr_any. set (va := frame_addr page) in *.
  cbv zeta.
  match goal with |- context [gvisit ?f _ _] => set (clo := f) end.
  unfold walk_items.
  assert (HI : forall lv level ta s,
             lv <> [] -> level + N.of_nat (length lv) = 4 -> P.mem_w64 s ->
             match gvisit clo (walk_items_from lv level ta va) (W tr0 s, None) with
             | GOk st => let '(v_world, v_err) := st in GOk (v_world, v_err)
             | GPanic => GPanic | GFuel => GFuel end =
             match unmap_walk lv level ta va s with
             | Stray => GPanic
             | Ok (s', e) => GOk (W (if e =? 0 then P.ev_flush va :: tr0 else tr0) s', P.err_of e)
             end).
  2:{ apply HI; [rewrite go_levels_val; discriminate | reflexivity | exact Hw]. }
  clear Hw s.
  induction lv as [|[sh bits] rest IH]; intros level ta s Hne Hlen Hw; [congruence|].
  cbn [walk_items_from gvisit unmap_walk].
  set (ea := entry_addr ta va sh bits) in *.
  unfold clo at 1. cbv beta iota.
  change (gsub 8 vmm_pageLevels 1) with last_level.
  unfold go_vmm_world_store_virt, go_vmm_world_load_virt, vstore, vload. wsimp.
  destruct (resolve s ea) as [[f i]|] eqn:Er.
  2:{ destruct (level =? last_level); reflexivity. }
  assert (HH : vmm_FlagHugePage < two64) by reflexivity.
  assert (HP : vmm_FlagPresent < two64) by reflexivity.
  destruct (level =? last_level) eqn:El.
  - rewrite (clear_flags_any _ _ (Hw f i) HP). wsimp.
    unfold go_vmm_world_seam. wsimp. cbn [P.o_flush].
    rewrite (leaf_is_last _ _ _ Hlen El). reflexivity.
  - destruct (upper_level _ _ _ Hlen El) as (Hlen' & Hne' & _).
    rewrite !(has_flags_any _ _ (Hw f i) HH), !(has_flags_any _ _ (Hw f i) HP).
    destruct (negb (has_flags (rd (mem s) f i) vmm_FlagPresent)). { reflexivity. }
    destruct (has_flags (rd (mem s) f i) vmm_FlagHugePage). { reflexivity. }
    exact (IH _ _ _ Hne' Hlen' Hw).
Qed.

Theorem unmap_is_translation page s tr0 :
  P.mem_w64 s ->
  wmem (go_vmm_Unmap (W tr0 s) page P.o_flush) = op_res (unmap_page page s).
Proof.
  intros Hw. rewrite (unmap_is_translation_calls page s tr0 Hw).
  destruct (unmap_page page s) as [[s' e]|]; reflexivity.
Qed.

(** ---- pteForAddress / Translate ---- *)
Definition pte_rel (s : st) (tr : list gcall) (g : gres (go_vmm_world * (N * option string))) (r : R (option (N * N))) : Prop :=
  match g, r with
  | GPanic, Stray => True
  | GOk (w, (p, e)), Ok None => w = W tr s /\ p = 0 /\ e = Some "ErrInvalidMapping"%string
  | GOk (w, (p, e)), Ok (Some fi) => w = W tr s /\ e = None /\ resolve s p = Some fi
  | _, _ => False
  end.

Theorem pte_for_address_is_translation va s tr0 :
  P.mem_w64 s ->
  pte_rel s tr0 (go_vmm_pteForAddress (W tr0 s) va) (pte_walk go_levels vmm_pdtVirtualAddr va s None).
Proof.
  intros Hw. unfold go_vmm_pteForAddress.
  cbv zeta.
  match goal with |- context [gvisit ?f _ _] => set (clo := f) end.
  unfold walk_items.
  assert (HI : forall lv level ta p o,
             match o with None => lv <> [] | Some fi => resolve s p = Some fi end ->
             pte_rel s tr0 (match gvisit clo (walk_items_from lv level ta va) (W tr0 s, p, None) with
                            | GOk st => let '(v_world, v_entry, v_err) := st in GOk (v_world, (v_entry, v_err))
                            | GPanic => GPanic | GFuel => GFuel end) (pte_walk lv ta va s o)).
  2:{ apply HI. discriminate. }
  induction lv as [|[sh bits] rest IH]; intros level ta p o Ho.
  { cbn [walk_items_from gvisit pte_walk]. unfold pte_rel. destruct o as [fi|]; [|congruence].
    repeat split. exact Ho. }
  cbn [walk_items_from gvisit pte_walk].
  set (ea := entry_addr ta va sh bits) in *.
  unfold clo at 1. cbv beta iota.
  unfold go_vmm_world_load_virt, vload. wsimp.
  destruct (resolve s ea) as [[f i]|] eqn:Er; [|exact I].
  assert (HP : vmm_FlagPresent < two64) by reflexivity.
  rewrite (has_flags_any _ _ (Hw f i) HP).
  destruct (negb (has_flags (rd (mem s) f i) vmm_FlagPresent)).
  - cbn. repeat split.
  - apply IH. exact Er.
Qed.

Lemma page_offset_trans va tr s :
  go_vmm_PageOffset (W tr s) va = GOk (W tr s, page_offset va).
Proof. reflexivity. Qed.

Theorem translate_is_translation va s tr0 :
  P.mem_w64 s ->
  go_vmm_Translate (W tr0 s) va =
  match translate va s with
  | Stray => GPanic
  | Ok (e, pa) => GOk (W tr0 s, (pa, P.err_of e))
  end.
Proof.
  intros Hw. unfold go_vmm_Translate, translate.
  pose proof (pte_for_address_is_translation va s tr0 Hw) as H. unfold pte_rel in H.
  destruct (go_vmm_pteForAddress (W tr0 s) va) as [[w [p e]]| |];
    destruct (pte_walk go_levels vmm_pdtVirtualAddr va s None) as [[[f i]|]|]; try contradiction; try reflexivity.
  - destruct H as (-> & -> & Hr). cbn [gerr_eqb negb].
    unfold go_vmm_world_load_virt, vload. wsimp. rewrite Hr.
    rewrite page_offset_trans.
    rewrite (pte_frame_any _ (Hw f i)), frame_addr_any, gw64. reflexivity.
  - destruct H as (-> & -> & ->). reflexivity.
Qed.

(** ---- MapTemporary ---- *)
Theorem map_temporary_is_translation frame s tr0 :
  P.mem_w64 s ->
  map_stable go_levels 0 vmm_pdtVirtualAddr (frame_addr temp_page) s ->
  wmem (go_vmm_MapTemporary (W tr0 s) frame P.o_flush P.o_memset o_alloc o_id) =
  match map_temporary frame s with
  | Stray => GPanic
  | Ok (s', e, p) => GOk (s', (p, P.err_of e))
  end.
Proof.
  intros Hw Hst. unfold go_vmm_MapTemporary, map_temporary. wsimp.
  destruct (prot s && (frame =? zf s)); [reflexivity|].
  change (go_mm_PageFromAddress vmm_tempMappingAddr) with temp_page.
  change (N.lor vmm_FlagPresent vmm_FlagRW) with P_RW.
  rewrite (map_is_translation_calls temp_page frame P_RW s tr0 P.P_RW_lt Hw Hst), <- (map_page_tr_model temp_page frame P_RW s tr0).
  destruct (map_page_tr temp_page frame P_RW s tr0) as [[[s1 err] tr]|]; [|reflexivity].
  cbn [tr_res tr_forget]. rewrite P.err_of_nil.
  destruct (err =? 0) eqn:Ee; cbn [negb wmem]; [apply N.eqb_eq in Ee; subst err|]; reflexivity.
Qed.

(** ---- a decidable sufficient condition for [map_stable] ---- *)
(** does the hardware walk that translates [page] from table [t] read word [i] of frame [f]? *)
Fixpoint walk_reads (s : st) (levels : list N) (t page f i : N) : bool :=
  match levels with
  | [] => false
  | k :: rest =>
      ((t =? f) && (hw_idx page k =? i)) ||
      (if backed s t then
         let e := rd (mem s) t (hw_idx page k) in
         if hw_P e && negb (hw_PS e && (k <? 3)) then walk_reads s rest (hw_frame e) page f i else false
       else false)
  end.
Definition entry_reads (s : st) (ea f i : N) : bool :=
  walk_reads s hw_levels (N.shiftr (cr3 s) 12) (N.shiftr ea 12) f i.

Lemma hw_walk_wr s f i x page : forall levels t,
  walk_reads s levels t page f i = false ->
  hw_walk (wr_st s f i x) levels t page = hw_walk s levels t page.
Proof.
  assert (Hbk : forall t, backed (wr_st s f i x) t = backed s t) by reflexivity.
  induction levels as [|k rest IH]; intros t; cbn [hw_walk walk_reads].
  - intros _. rewrite Hbk. reflexivity.
  - rewrite Hbk. intros H. apply orb_false_elim in H. destruct H as [H1 H2].
    rewrite !P.rd_wr_st_gen, H1.
    destruct (backed s t); [|reflexivity].
    destruct (hw_P _ && negb _); [|reflexivity].
    apply IH. exact H2.
Qed.

Lemma entry_stable_b s ea f i :
  resolve s ea = Some (f, i) -> entry_reads s ea f i = false -> entry_stable s ea f i.
Proof.
  intros Hr Hn x. unfold resolve, mmu in *.
  change (cr3 (wr_st s f i x)) with (cr3 s).
  rewrite (hw_walk_wr s f i x _ _ _ Hn). exact Hr.
Qed.

Fixpoint map_stable_b (lv : list (N * N)) (level tableAddr va : N) (s : st) : bool :=
  match lv with
  | [] => true
  | (sh, bits) :: rest =>
      let ea := entry_addr tableAddr va sh bits in
      match resolve s ea with
      | None => true
      | Some (f, i) =>
          if level =? last_level then negb (entry_reads s ea f i)
          else
            let e := rd (mem s) f i in
            if has_flags e vmm_FlagHugePage then true
            else if negb (has_flags e vmm_FlagPresent) then
              match alloc s with
              | (s1, None) => true
              | (s1, Some nf) =>
                  negb (entry_reads s1 ea f i) &&
                  (let s2 := wr_st s1 f i (set_flags (set_frame 0 nf) P_RW) in
                   match resolve_page s2 (shl64 ea (level_bits (level + 1))) with
                   | None => true
                   | Some pf => map_stable_b rest (level + 1) (shl64 ea bits) va (set_mem s2 (zero (mem s2) pf))
                   end)
              end
            else map_stable_b rest (level + 1) (shl64 ea bits) va s
      end
  end.

Lemma map_stable_b_ok lv : forall level ta va s, map_stable_b lv level ta va s = true -> map_stable lv level ta va s.
Proof.
  induction lv as [|[sh bits] rest IH]; intros level ta va s; cbn [map_stable_b map_stable]; [trivial|].
  destruct (resolve s _) as [[f i]|] eqn:Er; [|trivial].
  destruct (level =? last_level).
  { intros H. apply entry_stable_b; [exact Er | apply negb_true_iff; exact H]. }
  destruct (has_flags _ vmm_FlagHugePage); [trivial|].
  destruct (negb _); [|apply IH].
  destruct (alloc s) as [s1 [nf|]] eqn:Ea; [|trivial].
  intros H. apply andb_prop in H. destruct H as [H1 H2]. split.
  - apply entry_stable_b; [|apply negb_true_iff; exact H1].
    destruct (alloc_same _ _ _ Ea) as (_ & Ar & _). rewrite Ar. exact Er.
  - destruct (resolve_page _ _) as [pf|]; [|trivial]. apply IH. exact H2.
Qed.
