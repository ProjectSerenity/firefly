(** The hand-written model of reserveZeroedFrame (Vmm/Pt.v [reserve_zeroed]) against the Gallina translation that
    gen/gotrans ("memory as state" mode, config vmm_zero.json) regenerates from kernel/mm/vmm/vmm.go on every run
    (Gen/Trans_vmm_zero.v).  The package variables ReservedZeroedFrame and protectReservedZeroedPage are the fields [zf]
    and [prot] of the state; assignments to them apply the model's setters.  mm.AllocFrame (which hands back
    mm.InvalidFrame with its error), mapTemporaryFn, kernel.Memset and unmapFn are seams with the model's environment
    as oracles. *)
From Coq Require Import NArith ZArith String List Bool Lia.
From FF Require Import Lib.Word Lib.GoOps Lib.GoOpsProofs Gen.Consts_mm_vmm Gen.Trans_vmm_zero.
From FF Require Import Vmm.Pt Vmm.PtMem Vmm.PtAccess.
From FF Require Vmm.PdtTrans.
Module P := FF.Vmm.PdtTrans.
Import ListNotations.
Local Open Scope N_scope.

Notation W := mk_go_vmm_world (only parsing).

(** mm.AllocFrame returns (InvalidFrame, error) when it fails *)
Definition o_alloc_inv (_ : list gcall) (s : st) : option (st * (N * option string)) :=
  match alloc s with
  | (s1, None) => Some (s1, (mm_InvalidFrame, P.err_of E_ALLOC))
  | (s1, Some f) => Some (s1, (f, None))
  end.

Definition ev_alloc : gcall := GCall "mm.AllocFrame" [].

Definition zero_events (s : st) (e : N) (tr0 : list gcall) : list gcall :=
  match alloc s with
  | (_, None) => ev_alloc :: tr0
  | (_, Some f) =>
      if e =? 0 then P.ev_unmap temp_page :: P.ev_memset (frame_addr temp_page) :: P.ev_maptemp f :: ev_alloc :: tr0
      else P.ev_maptemp f :: ev_alloc :: tr0
  end.

(** this translation unit's copy of the helper (Vmm/PdtTrans.v says why every unit has one) *)
Lemma page_addr_any f : go_mm_Page_Address f = frame_addr f.
Proof. exact (P.frame_addr_any f). Qed.

Ltac wsimp := cbn [f_world_trace f_world_mem set_f_world_trace set_f_world_mem].

Theorem reserve_zeroed_is_translation s tr0 :
  go_vmm_reserveZeroedFrame (W tr0 s) P.o_memset P.o_maptemp o_alloc_inv P.o_unmap =
  match reserve_zeroed s with
  | Stray => GPanic
  | Ok (s', e) => GOk (W (zero_events s e tr0) s', P.err_of e)
  end.
Proof.
  unfold go_vmm_reserveZeroedFrame, reserve_zeroed, zero_events.
  unfold go_vmm_world_seam at 1. wsimp. unfold o_alloc_inv.
  destruct (alloc s) as [s1 [f|]] eqn:Ea; [|reflexivity].
  wsimp. cbn [gerr_eqb negb].
  unfold go_vmm_world_seam at 1. wsimp. cbn [P.o_maptemp zf set_zf].
  destruct (map_temporary f (set_zf s1 f)) as [[[s3 err] page]|] eqn:Emt; [|reflexivity].
  rewrite P.err_of_nil.
  destruct (err =? 0) eqn:Eerr; cbn [negb]; [|cbv iota beta; rewrite Eerr; reflexivity].
  apply N.eqb_eq in Eerr. subst err.
  pose proof (P.map_temporary_page _ _ _ _ _ Emt) as Ep. change (page = temp_page) in Ep. subst page.
  rewrite page_addr_any.
  unfold go_vmm_world_seam at 1. wsimp. cbn [P.o_memset].
  change ((0 =? 0) && (mm_PageSize =? mm_PageSize)) with true. cbv iota.
  destruct (resolve_page s3 (frame_addr temp_page)) as [pf|]; [|reflexivity].
  wsimp.
  unfold go_vmm_world_seam. wsimp. cbn [P.o_unmap].
  destruct (unmap_page temp_page _) as [[s4 e4]|]; cbn [P.lift_op]; reflexivity.
Qed.
