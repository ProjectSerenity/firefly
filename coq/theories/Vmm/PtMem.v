(** The physical-memory interface of Vmm/Pt.v: read-after-write lemmas.  The Pt*.v proofs use
    [rd]/[wr]/[zero]/[cpy]/[fill] only through these; Vmm/PdtTrans.v opens [wr] and [rd] for two more. *)
From Coq Require Import NArith List Bool FMapPositive Lia.
From FF Require Import Lib.Std Lib.Word Vmm.Pt.
Import ListNotations.
Local Open Scope N_scope.

Lemma key_inj a b : key a = key b -> a = b.
Proof. exact (succ_pos_inj a b). Qed.

Lemma get_tbl_add_same m f t : get_tbl (PositiveMap.add (key f) t m) f = t.
Proof. unfold get_tbl. rewrite PositiveMap.gss. reflexivity. Qed.

Lemma get_tbl_add_other m f f' t : f' <> f -> get_tbl (PositiveMap.add (key f) t m) f' = get_tbl m f'.
Proof.
  intros H. unfold get_tbl. rewrite PositiveMap.gso; [reflexivity|]. intros E. apply key_inj in E. congruence.
Qed.

Lemma rd_wr m f i v f' i' : rd (wr m f i v) f' i' = if (f' =? f) && (i' =? i) then v else rd m f' i'.
Proof.
  unfold rd, wr. destruct (N.eqb_spec f' f) as [->|Hf]; cbn [andb].
  - rewrite get_tbl_add_same. unfold tbl_get. cbn [fst snd].
    destruct (N.eqb_spec i' i) as [->|Hi].
    + rewrite PositiveMap.gss. reflexivity.
    + rewrite PositiveMap.gso; [reflexivity|]. intros E. apply key_inj in E. congruence.
  - rewrite get_tbl_add_other by exact Hf. reflexivity.
Qed.

Lemma rd_zero m f f' i' : rd (zero m f) f' i' = if f' =? f then 0 else rd m f' i'.
Proof.
  unfold rd, zero. destruct (N.eqb_spec f' f) as [->|Hf].
  - rewrite get_tbl_add_same. unfold tbl_get. cbn [fst snd base_get]. rewrite PositiveMap.gempty. reflexivity.
  - rewrite get_tbl_add_other by exact Hf. reflexivity.
Qed.

Lemma rd_cpy m src dst f' i' : rd (cpy m src dst) f' i' = if f' =? dst then rd m src i' else rd m f' i'.
Proof.
  unfold rd, cpy. destruct (N.eqb_spec f' dst) as [->|Hf].
  - rewrite get_tbl_add_same. reflexivity.
  - rewrite get_tbl_add_other by exact Hf. reflexivity.
Qed.

Lemma rd_fill m f seed f' i' : rd (fill m f seed) f' i' = if f' =? f then fill_word seed i' else rd m f' i'.
Proof.
  unfold rd, fill. destruct (N.eqb_spec f' f) as [->|Hf].
  - rewrite get_tbl_add_same. unfold tbl_get. cbn [fst snd base_get]. rewrite PositiveMap.gempty. reflexivity.
  - rewrite get_tbl_add_other by exact Hf. reflexivity.
Qed.

Global Opaque rd wr zero cpy fill.
