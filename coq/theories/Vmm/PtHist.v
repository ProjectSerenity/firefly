(** C04 [histories]: any sequence of Map / Unmap / Translate requests refines an abstract
    page -> (frame, flags) map. *)
From Coq Require Import NArith ZArith Lia List Bool.
From Coq Require Import ZifyBool ZifyN ZifyNat.
From FF Require Import Lib.Word Gen.Consts_mm_vmm Vmm.Region Vmm.Pt Vmm.PtMem Vmm.PtArith Vmm.PtTree Vmm.PtMap Vmm.PtOps Vmm.PtTheorems.
Import ListNotations.
Local Open Scope N_scope.

Inductive hop :=
| HMap (page frame flags : N)
| HUnmap (page : N)
| HTranslate (va : N).

(** the abstract address space: the four table indices of a page -> (frame, flag bits) *)
Definition amap : Type := list N -> option (N * N).
Definition aupd (m : amap) (k : list N) (v : option (N * N)) : amap :=
  fun k' => if list_eq_dec N.eq_dec k' k then v else m k'.

(** the abstract machine: a successful Map records the request, a successful Unmap forgets the page,
    a failed request changes nothing; Translate reads.  (err, value) is what the request returned. *)
Definition astep (o : hop) (res : N * N) (m : amap) : amap :=
  match o with
  | HMap page frame flags =>
      if fst res =? 0 then aupd m (ixs page) (if N.testbit flags 0 then Some (frame, flags) else None) else m
  | HUnmap page => if fst res =? 0 then aupd m (ixs page) None else m
  | HTranslate _ => m
  end.

Fixpoint arun (ops : list hop) (rs : list (N * N)) (m : amap) : amap :=
  match ops, rs with
  | o :: ops', r :: rs' => arun ops' rs' (astep o r m)
  | _, _ => m
  end.

(** what the abstract machine answers to Translate *)
Definition atranslate (m : amap) (va : N) : N * N :=
  match m (ixs (N.shiftr va 12)) with
  | Some (f, _) => (E_OK, f * 4096 + va mod 4096)
  | None => (E_INVALID, 0)
  end.

(** the implementation *)
Definition hstep (o : hop) (s : st) : R (st * (N * N)) :=
  match o with
  | HMap page frame flags => match map_page page frame flags s with Ok (s', e) => Ok (s', (e, 0)) | Stray => Stray end
  | HUnmap page => match unmap_page page s with Ok (s', e) => Ok (s', (e, 0)) | Stray => Stray end
  | HTranslate va => match translate va s with Ok r => Ok (s, r) | Stray => Stray end
  end.

Fixpoint hrun (ops : list hop) (s : st) : R (st * list (N * N)) :=
  match ops with
  | [] => Ok (s, [])
  | o :: r =>
      match hstep o s with
      | Stray => Stray
      | Ok (s1, res) => match hrun r s1 with Stray => Stray | Ok (s2, rs) => Ok (s2, res :: rs) end
      end
  end.

(** the quantifier: pages outside the recursive window, frames below 2^40, flags outside bits 12-51 *)
Definition hdom (o : hop) : Prop :=
  match o with
  | HMap page frame flags => hw_idx page 0 <> 511 /\ frame < 2 ^ 40 /\ N.land flags vmm_ptePhysPageMask = 0
  | HUnmap page => hw_idx page 0 <> 511
  | HTranslate va => hw_idx (N.shiftr va 12) 0 <> 511
  end.

Definition refines (s : st) (A : N) (m : amap) : Prop :=
  forall q, hw_idx q 0 <> 511 -> translation s A q = m (ixs q).

Lemma tr_after_map s s' T p f fl (m : amap) :
  aspace s' T p = Some (set_flags (set_frame 0 f) fl) ->
  (forall q, hw_idx q 0 <> 511 -> ~ same_page q p -> translation s' T q = translation s T q) ->
  f < 2 ^ 40 -> N.land fl vmm_ptePhysPageMask = 0 ->
  (forall q, hw_idx q 0 <> 511 -> translation s T q = m (ixs q)) ->
  forall q, hw_idx q 0 <> 511 -> translation s' T q = aupd m (ixs p) (if N.testbit fl 0 then Some (f, fl) else None) (ixs q).
Proof.
  intros Ha Hoth Hf Hfl Hm q Hq. unfold aupd.
  destruct (list_eq_dec N.eq_dec (ixs q) (ixs p)) as [Es|Hne].
  - unfold translation, aspace. rewrite Es. unfold aspace in Ha. rewrite Ha.
    destruct (leaf_exact f fl Hf Hfl) as (_ & L2 & L3 & L4). rewrite L2, L3, L4. reflexivity.
  - rewrite (Hoth q Hq Hne). apply Hm. exact Hq.
Qed.

Lemma tr_after_unmap s s' T p (m : amap) :
  translation s' T p = None ->
  (forall q, hw_idx q 0 <> 511 -> ~ same_page q p -> aspace s' T q = aspace s T q) ->
  (forall q, hw_idx q 0 <> 511 -> translation s T q = m (ixs q)) ->
  forall q, hw_idx q 0 <> 511 -> translation s' T q = aupd m (ixs p) None (ixs q).
Proof.
  intros Hn Hoth Hm q Hq. unfold aupd.
  destruct (list_eq_dec N.eq_dec (ixs q) (ixs p)) as [Es|Hne].
  - unfold translation, aspace in *. rewrite Es. exact Hn.
  - unfold translation. rewrite (Hoth q Hq Hne). apply Hm. exact Hq.
Qed.

(** the answers Translate gave along a history are the abstract machine's *)
Fixpoint answers_ok (ops : list hop) (rs : list (N * N)) (m : amap) : Prop :=
  match ops, rs with
  | o :: ops', r :: rs' =>
      (match o with
       | HTranslate va => r = atranslate m va
       | HMap _ _ _ => (fst r = 0 \/ fst r = E_ALLOC)
       | HUnmap _ => (fst r = 0 \/ fst r = E_INVALID)
       end) /\ answers_ok ops' rs' (astep o r m)
  | [], [] => True
  | _, _ => False
  end.

Theorem histories A ops : forall s own m,
  Inv s A A own -> prot s = false -> Forall hdom ops -> refines s A m ->
  exists s' rs own',
    hrun ops s = Ok (s', rs) /\ Inv s' A A own' /\ prot s' = false /\
    refines s' A (arun ops rs m) /\ answers_ok ops rs m.
Proof.
  induction ops as [|o r IH]; intros s own m HI Hp Hd Href.
  - exists s, [], own. split; [reflexivity|]. split; [exact HI|]. split; [exact Hp|]. split; [exact Href | exact I].
  - inversion Hd as [|? ? Hd1 Hdr]; subst.
    destruct o as [page frame flags | page | va]; cbn [hdom] in Hd1; cbn [hrun hstep].
    + destruct Hd1 as (H511 & Hf & Hfl).
      assert (Hg: zero_guard s frame flags = false) by (unfold zero_guard; rewrite Hp; reflexivity).
      destruct (map_ok s A A own page frame flags HI H511 Hg) as
          (s1 & err & own1 & Hrun & HI1 & Henv & Herr & Hok & Hfail & _).
      rewrite Hrun.
      assert (Hp1: prot s1 = false) by (rewrite (same_env_prot s s1 Henv); exact Hp).
      assert (Href1: refines s1 A (astep (HMap page frame flags) (err, 0) m)).
      { intros q Hq. cbn [astep fst]. destruct (N.eqb_spec err 0) as [E0|E0].
        - destruct (Hok E0) as (Ha & Hoth & _). exact (tr_after_map s s1 A page frame flags m Ha Hoth Hf Hfl Href q Hq).
        - destruct (Hfail E0) as (Hoth & _). rewrite (Hoth q Hq). apply Href. exact Hq. }
      destruct (IH s1 own1 _ HI1 Hp1 Hdr Href1) as (s' & rs & own' & Hr & HI' & Hp' & Href' & Hans).
      rewrite Hr. exists s', ((err, 0) :: rs), own'. split; [reflexivity|]. split; [exact HI'|]. split; [exact Hp'|].
      split; [exact Href'|]. cbn [answers_ok fst]. split; [exact Herr | exact Hans].
    + destruct (unmap_ok s A A own page HI Hd1) as (s1 & err & Hrun & Herr & HI1 & Henv & _ & Hinv & Hok).
      rewrite Hrun.
      assert (Hp1: prot s1 = false) by (rewrite (same_env_prot s s1 Henv); exact Hp).
      assert (Href1: refines s1 A (astep (HUnmap page) (err, 0) m)).
      { intros q Hq. cbn [astep fst]. destruct (N.eqb_spec err 0) as [E0|E0].
        - destruct (Hok E0) as (e & _ & _ & Ht & Hoth & _). exact (tr_after_unmap s s1 A page m Ht Hoth Href q Hq).
        - destruct Herr as [E|E]; [congruence|]. destruct (Hinv E) as [Es _]. rewrite Es. apply Href. exact Hq. }
      destruct (IH s1 own _ HI1 Hp1 Hdr Href1) as (s' & rs & own' & Hr & HI' & Hp' & Href' & Hans).
      rewrite Hr. exists s', ((err, 0) :: rs), own'. split; [reflexivity|]. split; [exact HI'|]. split; [exact Hp'|].
      split; [exact Href'|]. cbn [answers_ok fst]. split; [exact Herr | exact Hans].
    + rewrite (translate_ok s A A own va HI Hd1).
      destruct (IH s own m HI Hp Hdr Href) as (s' & rs & own' & Hr & HI' & Hp' & Href' & Hans).
      rewrite Hr. eexists s', (_ :: rs), own'. split; [reflexivity|]. split; [exact HI'|]. split; [exact Hp'|].
      split; [exact Href'|]. cbn [answers_ok astep]. split; [|exact Hans].
      unfold atranslate. rewrite <- (Href _ Hd1). reflexivity.
Qed.
