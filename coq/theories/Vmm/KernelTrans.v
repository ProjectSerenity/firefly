(** The hand-written model of setupPDTForKernel (Vmm/Pt.v [setup_kernel], the subject of Vmm/PtKernel.v and C05) against the
    Gallina translation that gen/gotrans ("memory as state" mode, config vmm_kernel.json) regenerates from
    kernel/mm/vmm/pdt.go on every run (Gen/Trans_vmm_kernel.v).

    The section visitor - a closure stored in a variable and handed to visitElfSectionsFn - is the body of
    [gvisit .. sections ..] (Lib/GoVisit.v): [sections] is the sequence of (flags, address, size) the visitor function
    delivers; that multiboot.VisitElfSections delivers exactly the non-empty ELF sections of the boot information, in
    order, is the contract of that function and the subject of C10, not of this tie.  mm.AllocFrame, kernelPDT.Init /
    Map / Activate and translateFn are seams whose oracles are the model's allocator, [pdt_init] / [pdt_map] /
    [pdt_activate] on the kernel's slot (tied to pdt.go by C04_pdt_*_is_translation) and [translate].

    [sec_flags], [sec_cur], [sec_last], [sec_frame], [sec_n], [resv_n], [nonempty] below have the bodies of
    Vmm/PtKernel.v's [sec_flags] .. [sec_n], [resv_count], [live_secs] (the terms of C05's theorems about the model):
    they are convertible, and no proof here needs to pass from one copy to the other. *)
From Coq Require Import NArith ZArith String List Bool Lia.
From Coq Require Import ZifyBool ZifyN ZifyNat.
From FF Require Import Lib.Word Lib.GoOps Lib.GoOpsExt Lib.GoOpsProofs Lib.GoVisit Gen.Consts_mm_vmm Gen.Consts_multiboot Gen.Trans_vmm_kernel.
From FF Require Import Vmm.Pt Vmm.PtMem Vmm.PtAccess.
From FF Require Vmm.PdtTrans Vmm.MapTrans Vmm.PtTrans Vmm.PtKernel Vmm.RegionTrans.
Module P := FF.Vmm.PdtTrans.
Module M := FF.Vmm.MapTrans.
Module K := FF.Vmm.PtKernel.
Import ListNotations.
Local Open Scope N_scope.

Notation W := mk_go_vmm_world (only parsing).

(** ---- the oracles of the model's environment ---- *)
Definition o_kinit (tr : list gcall) (s : st) : option (st * option string) :=
  match tr with GCall _ [GNum f] :: _ => P.lift_op (pdt_init kernel_slot f s) | _ => None end.
Definition o_kmap (tr : list gcall) (s : st) : option (st * option string) :=
  match tr with GCall _ [GNum p; GNum f; GNum fl] :: _ => P.lift_op (pdt_map kernel_slot p f fl s) | _ => None end.
Definition o_kactivate (_ : list gcall) (s : st) : option (st * unit) := Some (pdt_activate kernel_slot s, tt).
Definition o_translate (tr : list gcall) (s : st) : option (st * (N * option string)) :=
  match tr with
  | GCall _ [GNum a] :: _ => match translate a s with Stray => None | Ok (e, pa) => Some (s, (pa, P.err_of e)) end
  | _ => None
  end.

Definition ev_alloc : gcall := GCall "mm.AllocFrame" [].
Definition ev_kinit (f : N) : gcall := GCall "kernelPDT.Init" [GNum f].
Definition ev_kmap (p f fl : N) : gcall := GCall "kernelPDT.Map" [GNum p; GNum f; GNum fl].
Definition ev_translate (a : N) : gcall := GCall "translateFn" [GNum a].
Definition ev_kactivate : gcall := GCall "kernelPDT.Activate" [].

(** ---- the model with the sequence of seam calls written next to it ----
    [setup_kernel] (Vmm/Pt.v) computes state and error; the functions below make the same steps on unary counts and
    in addition push the call each step makes on a trace (most recent first).  [setup_kernel_tr_model] says that
    forgetting the trace gives [setup_kernel]. *)
Inductive lres : Type :=
| LGo (s : st) (page frame : N) (tr : list gcall)
| LStray
| LErr (s : st) (e : N) (tr : list gcall).

Fixpoint pages_tr (n : nat) (flags : N) (s : st) (page frame : N) (tr : list gcall) : lres :=
  match n with
  | O => LGo s page frame tr
  | S n' =>
      let tr1 := ev_kmap page frame flags :: tr in
      match pdt_map kernel_slot page frame flags s with
      | Stray => LStray
      | Ok (s1, e) => if e =? 0 then pages_tr n' flags s1 (w64 (page + 1)) (w64 (frame + 1)) tr1 else LErr s1 e tr1
      end
  end.

Definition lres_forget (r : lres) : loop_state + loop_exit :=
  match r with
  | LGo s p f _ => inl (s, p, f)
  | LStray => inr None
  | LErr s e _ => inr (Some (s, e))
  end.

Lemma pages_tr_model n flags : forall s page frame tr,
  lres_forget (pages_tr n flags s page frame tr) =
  K.iter_nat (map_step (fun p f => pdt_map kernel_slot p f flags)) n (s, page, frame).
Proof.
  induction n as [|n IH]; intros s page frame tr; cbn [pages_tr K.iter_nat]; [reflexivity|].
  unfold map_step at 1. destruct (pdt_map kernel_slot page frame flags s) as [[s1 e]|]; [|reflexivity].
  destruct (e =? 0); [apply IH | reflexivity].
Qed.

(** one section: [acc] = (state, error code, trace); None = Stray *)
Definition sec_flags (sflags : N) : N :=
  let fl0 := vmm_FlagPresent in
  let fl1 := if N.land sflags sec_executable =? 0 then N.lor fl0 vmm_FlagNoExecute else fl0 in
  if negb (N.land sflags sec_writable =? 0) then N.lor fl1 vmm_FlagRW else fl1.
Definition sec_cur (addr : N) : N := page_from_addr addr.
Definition sec_last (addr size : N) : N := page_from_addr (w64 (addr + w64 (size + (two64 - 1)))).
Definition sec_frame (off addr : N) : N := N.shiftr (w64 (addr + two64 - off)) mm_PageShift.
Definition sec_n (addr size : N) : N :=
  if sec_cur addr <=? sec_last addr size then sec_last addr size - sec_cur addr + 1 else 0.

Definition visit_tr (off : N) (sec : section) (acc : option (st * N * list gcall)) : option (st * N * list gcall) :=
  match acc with
  | None => None
  | Some (s, err, tr) =>
      let '(sflags, addr, size) := sec in
      if negb (err =? 0) || (addr <? off) then Some (s, err, tr) else
      match pages_tr (N.to_nat (sec_n addr size)) (sec_flags sflags) s (sec_cur addr) (sec_frame off addr) tr with
      | LGo s1 _ _ tr1 => Some (s1, E_OK, tr1)
      | LStray => None
      | LErr s1 e tr1 => Some (s1, e, tr1)
      end
  end.

Definition acc_forget (a : option (st * N * list gcall)) : R (st * N) :=
  match a with None => Stray | Some (s, e, _) => Ok (s, e) end.

Lemma visit_tr_model off sec acc :
  acc_forget (visit_tr off sec acc) = visit_section off sec (acc_forget acc).
Proof.
  destruct acc as [[[s err] tr]|]; [|reflexivity]. destruct sec as [[sflags addr] size].
  cbn [visit_tr visit_section acc_forget].
  destruct (negb (err =? 0) || (addr <? off)); [reflexivity|].
  fold (sec_flags sflags). cbv zeta.
  change (page_from_addr addr) with (sec_cur addr).
  change (page_from_addr (w64 (addr + w64 (size + (two64 - 1))))) with (sec_last addr size).
  change (N.shiftr (w64 (addr + two64 - off)) mm_PageShift) with (sec_frame off addr).
  fold (sec_n addr size).
  rewrite K.iter_n_nat, <- (pages_tr_model _ _ s (sec_cur addr) (sec_frame off addr) tr).
  destruct (pages_tr _ _ _ _ _ _); reflexivity.
Qed.

(** the reserved-range loop *)
Fixpoint resv_tr (n : nat) (s : st) (a : N) (tr : list gcall) : lres :=
  match n with
  | O => LGo s a 0 tr
  | S n' =>
      let tr1 := ev_translate a :: tr in
      match translate a s with
      | Stray => LStray
      | Ok (err, pa) =>
          if negb (err =? 0) then LErr s err tr1 else
          let tr2 := ev_kmap (page_from_addr a) (N.shiftr pa mm_PageShift) P_RW :: tr1 in
          match pdt_map kernel_slot (page_from_addr a) (N.shiftr pa mm_PageShift) P_RW s with
          | Stray => LStray
          | Ok (s1, e) => if e =? 0 then resv_tr n' s1 (w64 (a + mm_PageSize)) tr2 else LErr s1 e tr2
          end
      end
  end.

Definition rres_forget (r : lres) : (st * N) + loop_exit :=
  match r with
  | LGo s a _ _ => inl (s, a)
  | LStray => inr None
  | LErr s e _ => inr (Some (s, e))
  end.

Lemma resv_tr_model n : forall s a tr, rres_forget (resv_tr n s a tr) = K.iter_nat resv_step n (s, a).
Proof.
  induction n as [|n IH]; intros s a tr; cbn [resv_tr K.iter_nat]; [reflexivity|].
  unfold resv_step at 1. destruct (translate a s) as [[err pa]|]; [|reflexivity].
  destruct (negb (err =? 0)); [reflexivity|].
  destruct (pdt_map kernel_slot _ _ P_RW s) as [[s1 e]|]; [|reflexivity].
  destruct (e =? 0); [apply IH | reflexivity].
Qed.

Definition resv_n (l : N) : N :=
  if l <? vmm_tempMappingAddr then (vmm_tempMappingAddr - l + (mm_PageSize - 1)) / mm_PageSize else 0.

Definition nonempty (secs : list section) : list section := filter (fun sec => negb (snd sec =? 0)) secs.

Definition setup_kernel_tr (off : N) (secs : list section) (s : st) (tr0 : list gcall) : option (st * N * list gcall) :=
  let tr1 := ev_alloc :: tr0 in
  match alloc s with
  | (s1, None) => Some (s1, E_ALLOC, tr1)
  | (s1, Some kf) =>
      let tr2 := ev_kinit kf :: tr1 in
      match pdt_init kernel_slot kf s1 with
      | Stray => None
      | Ok (s2, err) =>
          if negb (err =? 0) then Some (s2, err, tr2) else
          match fold_left (fun acc sec => visit_tr off sec acc) (nonempty secs) (Some (s2, E_OK, tr2)) with
          | None => None
          | Some (s3, err3, tr3) =>
              if negb (err3 =? 0) then Some (s3, err3, tr3) else
              match resv_tr (N.to_nat (resv_n (last s3))) s3 (last s3) tr3 with
              | LGo s4 _ _ tr4 => Some (pdt_activate kernel_slot s4, E_OK, ev_kactivate :: tr4)
              | LStray => None
              | LErr s4 e tr4 => Some (s4, e, tr4)
              end
          end
      end
  end.

Lemma fold_visit_model off secs : forall acc,
  acc_forget (fold_left (fun acc sec => visit_tr off sec acc) secs acc) =
  fold_left (fun acc sec => visit_section off sec acc) secs (acc_forget acc).
Proof.
  induction secs as [|sec secs IH]; intros acc; cbn [fold_left]; [reflexivity|].
  rewrite IH, visit_tr_model. reflexivity.
Qed.

Theorem setup_kernel_tr_model off secs s tr0 :
  acc_forget (setup_kernel_tr off secs s tr0) = setup_kernel off secs s.
Proof.
  unfold setup_kernel_tr, setup_kernel.
  destruct (alloc s) as [s1 [kf|]]; [|reflexivity].
  destruct (pdt_init kernel_slot kf s1) as [[s2 err]|]; [|reflexivity].
  destruct (negb (err =? 0)); [reflexivity|].
  fold (nonempty secs).
  pose proof (fold_visit_model off (nonempty secs) (Some (s2, E_OK, ev_kinit kf :: ev_alloc :: tr0))) as H.
  change (acc_forget (Some (s2, E_OK, ev_kinit kf :: ev_alloc :: tr0))) with (Ok (s2, E_OK)) in H. rewrite <- H.
  destruct (fold_left _ (nonempty secs) _) as [[[s3 err3] tr3]|]; cbn [acc_forget]; [|reflexivity].
  destruct (negb (err3 =? 0)); [reflexivity|].
  fold (resv_n (last s3)). rewrite K.iter_n_nat, <- (resv_tr_model _ s3 (last s3) tr3).
  destruct (resv_tr _ _ _ _); reflexivity.
Qed.

(** ---- the two loops: gloop of the translation = the unary loops of the traced model ---- *)
Lemma page_loop_trans
      (step : go_vmm_world * N * N * option string -> gres (gctl (go_vmm_world * N * N * option string) ((go_vmm_world * option string) * bool)))
      fl lastp :
  lastp + 1 < two64 ->
  (forall tr s cf cp, step (W tr s, cf, cp, None) =
     if cp <=? lastp then
       match pdt_map kernel_slot cp cf fl s with
       | Stray => GPanic
       | Ok (s1, e) =>
           if e =? 0 then GOk (GNext (W (ev_kmap cp cf fl :: tr) s1, gw 64 (cf + 1), gw 64 (cp + 1), None))
           else GOk (GRet ((W (ev_kmap cp cf fl :: tr) s1, P.err_of e), true))
       end
     else GOk (GBreak (W tr s, cf, cp, None))) ->
  forall n fuel tr s cf cp, (n < fuel)%nat ->
    N.of_nat n = (if cp <=? lastp then lastp - cp + 1 else 0) ->
    gloop fuel step (W tr s, cf, cp, None) =
    match pages_tr n fl s cp cf tr with
    | LGo s1 p1 f1 tr1 => GOk (inl (W tr1 s1, f1, p1, None))
    | LStray => GPanic
    | LErr s1 e tr1 => GOk (inr ((W tr1 s1, P.err_of e), true))
    end.
Proof.
  intros Hl Hstep. induction n as [|n IH]; intros fuel tr s cf cp Hf Hn; (destruct fuel as [|fuel]; [lia|]).
  - cbn [pages_tr]. apply gloop_break. rewrite Hstep.
    destruct (N.leb_spec cp lastp); [lia | reflexivity].
  - cbn [pages_tr]. rewrite gloop_S, Hstep.
    destruct (N.leb_spec cp lastp) as [Hle|]; [|lia].
    destruct (pdt_map kernel_slot cp cf fl s) as [[s1 e]|]; [|reflexivity].
    destruct (e =? 0); [|reflexivity].
    assert (E1 : gw 64 (cp + 1) = cp + 1) by (rewrite gw64; apply w64_small; unfold two64 in *; lia).
    assert (E2 : w64 (cp + 1) = cp + 1) by (apply w64_small; unfold two64 in *; lia).
    rewrite E1, E2, (gw64 (cf + 1)).
    apply IH; [lia|].
    destruct (N.leb_spec (cp + 1) lastp); lia.
Qed.

Lemma resv_n_step a : a < vmm_tempMappingAddr ->
  w64 (a + mm_PageSize) = a + mm_PageSize /\ resv_n a = resv_n (a + mm_PageSize) + 1.
Proof.
  intros Ha. unfold resv_n, w64, two64 in *.
  change vmm_tempMappingAddr with 18446743523953733632 in *. change mm_PageSize with 4096 in *.
  change (4096 - 1) with 4095.
  split; [apply N.mod_small; lia|].
  destruct (N.ltb_spec a 18446743523953733632); [|lia].
  destruct (N.ltb_spec (a + 4096) 18446743523953733632); lia.
Qed.

Lemma resv_loop_trans
      (step : go_vmm_world * N -> gres (gctl (go_vmm_world * N) (go_vmm_world * option string))) :
  (forall tr s a, a < two64 -> step (W tr s, a) =
     if a <? vmm_tempMappingAddr then
       match translate a s with
       | Stray => GPanic
       | Ok (err, pa) =>
           if negb (err =? 0) then GOk (GRet (W (ev_translate a :: tr) s, P.err_of err)) else
           let tr2 := ev_kmap (page_from_addr a) (N.shiftr pa mm_PageShift) P_RW :: ev_translate a :: tr in
           match pdt_map kernel_slot (page_from_addr a) (N.shiftr pa mm_PageShift) P_RW s with
           | Stray => GPanic
           | Ok (s1, e) => if e =? 0 then GOk (GNext (W tr2 s1, gw 64 (a + mm_PageSize))) else GOk (GRet (W tr2 s1, P.err_of e))
           end
       end
     else GOk (GBreak (W tr s, a))) ->
  forall n fuel tr s a, (n < fuel)%nat -> a < two64 -> N.of_nat n = resv_n a ->
    gloop fuel step (W tr s, a) =
    match resv_tr n s a tr with
    | LGo s1 a1 _ tr1 => GOk (inl (W tr1 s1, a1))
    | LStray => GPanic
    | LErr s1 e tr1 => GOk (inr (W tr1 s1, P.err_of e))
    end.
Proof.
  intros Hstep. induction n as [|n IH]; intros fuel tr s a Hf Ha Hn; (destruct fuel as [|fuel]; [lia|]).
  - cbn [resv_tr]. apply gloop_break. rewrite Hstep by exact Ha.
    destruct (N.ltb_spec a vmm_tempMappingAddr) as [Hlt|]; [|reflexivity].
    destruct (resv_n_step a Hlt) as [_ E]. lia.
  - cbn [resv_tr]. rewrite gloop_S, Hstep by exact Ha.
    destruct (N.ltb_spec a vmm_tempMappingAddr) as [Hlt|Hge].
    2:{ unfold resv_n in Hn. destruct (N.ltb_spec a vmm_tempMappingAddr); lia. }
    destruct (translate a s) as [[err pa]|]; [|reflexivity].
    destruct (negb (err =? 0)); [reflexivity|]. cbv zeta.
    destruct (pdt_map kernel_slot _ _ P_RW s) as [[s1 e]|]; [|reflexivity].
    destruct (e =? 0); [|reflexivity].
    destruct (resv_n_step a Hlt) as [E1 E2].
    rewrite gw64, E1.
    apply IH; [lia | | lia].
    unfold two64. change vmm_tempMappingAddr with 18446743523953733632 in Hlt. change mm_PageSize with 4096. lia.
Qed.

(** ---- arithmetic of this translation unit ---- *)
Lemma page_from_addr_any a : a < two64 -> go_mm_PageFromAddress a = page_from_addr a.
Proof. intros Ha. exact (proj1 (RegionTrans.page_of_addr_is_translation a Ha)). Qed.

Lemma page_from_addr_succ_lt a : a < two64 -> page_from_addr a + 1 < two64.
Proof.
  intros Ha. unfold page_from_addr, andnot. rewrite N.shiftr_div_pow2.
  assert (H : N.ldiff a (mm_PageSize - 1) <= a).
  { change (mm_PageSize - 1) with (2 ^ 12 - 1). fold (andnot a (2 ^ 12 - 1)). rewrite andnot_pow2. lia. }
  change (2 ^ mm_PageShift) with 4096. unfold two64 in *. lia.
Qed.

Lemma sec_last_trans addr size :
  go_mm_PageFromAddress (gw 64 (addr + gw 64 (gsub 64 size 1))) = sec_last addr size.
Proof.
  unfold sec_last. rewrite <- page_from_addr_any by apply w64_lt. f_equal.
  assert (E : gw 64 (gsub 64 size 1) = w64 (size + (two64 - 1))).
  { unfold gsub. change (gw 64 1) with 1. rewrite !gw64. rewrite (w64_small (w64 _)) by apply w64_lt.
    f_equal. change (2 ^ 64) with two64. unfold two64. lia. }
  rewrite E, gw64. reflexivity.
Qed.

Lemma sec_frame_trans off addr : off < two64 ->
  gw 64 (N.shiftr (gsub 64 addr off) mm_PageShift) = sec_frame off addr.
Proof.
  intros Ho. unfold sec_frame, gsub. rewrite (gw64 off), (w64_small off Ho), gw64.
  change (2 ^ 64) with two64. apply gw64_small. apply PtTrans.shiftr_lt. apply w64_lt.
Qed.

Lemma sec_flags_trans sflags :
  (let v_flags := vmm_FlagPresent in
   let v_flags0 := if N.land sflags mb_ElfSectionExecutable =? 0 then let v_flags0 := N.lor v_flags vmm_FlagNoExecute in v_flags0 else v_flags in
   if negb (N.land sflags mb_ElfSectionWritable =? 0) then let v_flags1 := N.lor v_flags0 vmm_FlagRW in v_flags1 else v_flags0)
  = sec_flags sflags.
Proof. reflexivity. Qed.

Lemma translate_lt a s e pa : translate a s = Ok (e, pa) -> pa < two64.
Proof.
  unfold translate. destruct (pte_walk _ _ _ _ _) as [[[f i]|]|]; intros E; try discriminate; injection E as _ <-.
  - apply w64_lt.
  - reflexivity.
Qed.

(** ---- the mapping operations do not move the reservation cursor ---- *)
Lemma evolves_last s s' : P.evolves s s' -> last s' = last s.
Proof.
  induction 1 as [s|s1 s2 s3 _ E1 _ E2|s f i x _|s f|s a|s s1 r Ea|s slot f]; try reflexivity.
  - congruence.
  - unfold alloc in Ea. destruct (orc s); inversion Ea; reflexivity.
Qed.

Lemma sec_flags_lt sflags : sec_flags sflags < two64.
Proof. unfold sec_flags. destruct (N.land sflags sec_executable =? 0); destruct (negb _); reflexivity. Qed.

Lemma fold_visit_none off secs : fold_left (fun acc sec => visit_tr off sec acc) secs None = None.
Proof. induction secs as [|x xs IH]; [reflexivity | exact IH]. Qed.

Lemma pages_tr_last n fl : fl < two64 -> forall s p f tr,
  match pages_tr n fl s p f tr with LGo s1 _ _ _ => last s1 = last s | LStray => True | LErr s1 _ _ => last s1 = last s end.
Proof.
  intros Hfl. induction n as [|n IH]; intros s p f tr; cbn [pages_tr]; [reflexivity|].
  destruct (pdt_map kernel_slot p f fl s) as [[s1 e]|] eqn:Em; [|exact I].
  apply (P.pdt_map_evolves _ _ _ _ _ _ _ Hfl), evolves_last in Em.
  destruct (e =? 0); [|exact Em].
  specialize (IH s1 (w64 (p + 1)) (w64 (f + 1)) (ev_kmap p f fl :: tr)).
  destruct (pages_tr _ _ _ _ _ _); try rewrite IH; auto.
Qed.

Lemma fold_visit_last off secs : forall s e tr s3 e3 tr3,
  fold_left (fun acc sec => visit_tr off sec acc) secs (Some (s, e, tr)) = Some (s3, e3, tr3) -> last s3 = last s.
Proof.
  induction secs as [|[[sfl addr] size] secs IH]; intros s e tr s3 e3 tr3; cbn [fold_left].
  - intros E; injection E as <- _ _. reflexivity.
  - cbn [visit_tr]. destruct (negb (e =? 0) || (addr <? off)); [apply IH|].
    pose proof (pages_tr_last (N.to_nat (sec_n addr size)) (sec_flags sfl) (sec_flags_lt sfl) s (sec_cur addr) (sec_frame off addr) tr) as HL.
    destruct (pages_tr _ _ _ _ _ _) as [s1 p1 f1 tr1| |s1 e1 tr1].
    + intros E. apply IH in E. congruence.
    + rewrite fold_visit_none. discriminate.
    + intros E. apply IH in E. congruence.
Qed.

(** ---- setupPDTForKernel ---- *)
Definition sec_ok (sec : section) : Prop := let '(_, addr, size) := sec in addr < two64 /\ size < two64.
Definition sec_fuel (fuel : nat) (sec : section) : Prop :=
  let '(_, addr, size) := sec in (N.to_nat (sec_n addr size) < fuel)%nat.
(** fuel: only the sections whose pages are MAPPED need it - non-empty (an empty section, e.g. the all-zero null section
    every ELF table starts with, whose page count `size - 1` wraps, is never delivered by the visitor) and at or above the
    kernel offset (the closure returns at once for `secAddress < kernelPageOffset`, e.g. for the large non-alloc .symtab /
    .debug sections at address 0) *)
Definition mapped (off : N) (secs : list section) : list section :=
  filter (fun sec : section => let '(_, addr, _) := sec in negb (addr <? off)) (nonempty secs).
Definition fuel_ok (fuel : nat) (off : N) (secs : list section) (s : st) : Prop :=
  Forall (sec_fuel fuel) (mapped off secs) /\ (N.to_nat (resv_n (last s)) < fuel)%nat.

Lemma Forall_filter {A} (P : A -> Prop) f l : Forall P l -> Forall P (filter f l).
Proof. induction 1 as [|x l Hx Hl IH]; cbn [filter]; [constructor|]. destruct (f x); [constructor|]; assumption. Qed.

Ltac wsimp := cbn [f_world_trace f_world_mem set_f_world_trace set_f_world_mem].

Theorem setup_kernel_is_translation off secs s tr0 fuel :
  off < two64 -> last s < two64 -> Forall sec_ok secs -> fuel_ok fuel off secs s ->
  go_vmm_setupPDTForKernel fuel (W tr0 s) off o_kactivate o_kinit o_kmap M.o_alloc o_translate (nonempty secs) =
  match setup_kernel_tr off secs s tr0 with
  | None => GPanic
  | Some (s', e, tr') => GOk (W tr' s', P.err_of e)
  end.
Proof.
  intros Hoff Hlast Hok [Hfs Hfr].
  apply (Forall_filter _ (fun sec => negb (snd sec =? 0))) in Hok.
  fold (nonempty secs) in Hok.
  unfold go_vmm_setupPDTForKernel, setup_kernel_tr.
  unfold go_vmm_world_seam at 1. wsimp. unfold M.o_alloc.
  destruct (alloc s) as [s1 [kf|]] eqn:Ea; [|reflexivity].
  cbn [gerr_eqb negb]. wsimp.
  unfold go_vmm_world_seam at 1. wsimp. cbn [o_kinit].
  destruct (pdt_init kernel_slot kf s1) as [[s2 err]|] eqn:Ei; cbn [P.lift_op]; [|reflexivity].
  rewrite P.err_of_nil.
  destruct (err =? 0) eqn:Eerr; cbn [negb]; [|reflexivity].
  apply N.eqb_eq in Eerr. subst err. wsimp.
  set (tr2 := ev_kinit kf :: ev_alloc :: tr0).
  change (GCall "kernelPDT.Init" [GNum kf] :: GCall "mm.AllocFrame" [] :: tr0) with tr2.
  match goal with |- context [gvisit ?f _ _] => set (vstep := f) end.
  assert (HV : forall l tr s e, Forall sec_ok l ->
             Forall (sec_fuel fuel) (filter (fun sec : section => let '(_, addr, _) := sec in negb (addr <? off)) l) ->
             gvisit vstep l (W tr s, P.err_of e) =
             match fold_left (fun acc sec => visit_tr off sec acc) l (Some (s, e, tr)) with
             | None => GPanic
             | Some (s', e', tr') => GOk (W tr' s', P.err_of e')
             end).
  { intros l. induction l as [|[[sfl addr] size] l IH]; intros tr sa e Hl1 Hl2; [reflexivity|].
    inversion Hl1 as [|? ? Hso Hl1']; subst.
    unfold sec_ok in Hso. destruct Hso as [Haddr Hsize].
    cbn [filter] in Hl2.
    assert (Hl2' : Forall (sec_fuel fuel) (filter (fun sec : section => let '(_, addr, _) := sec in negb (addr <? off)) l))
      by (destruct (addr <? off); cbn [negb] in Hl2; [exact Hl2 | inversion Hl2; assumption]).
    cbn [gvisit fold_left visit_tr].
    unfold vstep at 1. cbv beta iota. rewrite P.err_of_nil.
    destruct (negb (e =? 0) || (addr <? off)) eqn:Eskip.
    { apply IH; assumption. }
    apply orb_false_elim in Eskip. destruct Eskip as [Ee Eao].
    assert (Hfu : (N.to_nat (sec_n addr size) < fuel)%nat)
      by (rewrite Eao in Hl2; cbn [negb] in Hl2; inversion Hl2 as [|? ? Hfu0 _]; exact Hfu0).
    apply negb_false_iff in Ee. apply N.eqb_eq in Ee. subst e.
    rewrite sec_flags_trans. cbv zeta.
    rewrite (page_from_addr_any addr Haddr), sec_last_trans, (sec_frame_trans off addr Hoff).
    fold (sec_cur addr).
    match goal with |- context [gloop fuel ?f _] => set (pstep := f) end.
    change (P.err_of 0) with (@None string).
    rewrite (page_loop_trans pstep (sec_flags sfl) (sec_last addr size) (page_from_addr_succ_lt _ (w64_lt _)))
      with (n := N.to_nat (sec_n addr size)); [| |exact Hfu|rewrite N2Nat.id; reflexivity].
    2:{ intros tr' s' cf cp. unfold pstep. cbv beta iota.
        destruct (cp <=? sec_last addr size); [|reflexivity].
        unfold go_vmm_world_seam. wsimp. cbn [o_kmap].
        destruct (pdt_map kernel_slot cp cf (sec_flags sfl) s') as [[s1' e']|]; cbn [P.lift_op]; [|reflexivity].
        rewrite P.err_of_nil. destruct (e' =? 0) eqn:E0; cbn [negb]; [|reflexivity].
        apply N.eqb_eq in E0. subst e'. reflexivity. }
    destruct (pages_tr _ _ _ _ _ _) as [s1' p1 f1 tr1| |s1' e1 tr1].
    - cbn [gvisit]. apply (IH tr1 s1' E_OK); assumption.
    - rewrite fold_visit_none. reflexivity.
    - apply (IH tr1 s1' e1); assumption. }
  change (set_f_world_mem (set_f_world_trace (set_f_world_mem (set_f_world_trace (W tr0 s) (GCall "mm.AllocFrame" [] :: tr0)) s1) tr2) s2) with (W tr2 s2).
  change (P.err_of 0) with (P.err_of E_OK).
  rewrite (HV (nonempty secs) tr2 s2 E_OK Hok Hfs).
  destruct (fold_left _ (nonempty secs) (Some (s2, E_OK, tr2))) as [[[s3 err3] tr3]|] eqn:Efold; [|reflexivity].
  rewrite P.err_of_nil.
  destruct (err3 =? 0) eqn:E3; cbn [negb]; [|reflexivity].
  apply N.eqb_eq in E3. subst err3. wsimp.
  assert (HL3 : last s3 = last s).
  { rewrite (fold_visit_last off _ _ _ _ _ _ _ Efold), (evolves_last _ _ (P.pdt_init_evolves _ _ _ _ _ Ei)).
    exact (evolves_last _ _ (P.evolves_alloc _ _ _ Ea)). }
  match goal with |- context [gloop fuel ?f _] => set (rstep := f) end.
  rewrite (resv_loop_trans rstep) with (n := N.to_nat (resv_n (last s3)));
    [| |rewrite HL3; exact Hfr|rewrite HL3; exact Hlast|rewrite N2Nat.id; reflexivity].
  2:{ intros tr' s' a Ha. unfold rstep. cbv beta iota.
      destruct (a <? vmm_tempMappingAddr); [|reflexivity]. cbv zeta.
      unfold go_vmm_world_seam at 1. wsimp. cbn [o_translate].
      destruct (translate a s') as [[err pa]|] eqn:Et; [|reflexivity]. wsimp.
      rewrite P.err_of_nil. destruct (negb (err =? 0)); [reflexivity|].
      rewrite (page_from_addr_any a Ha).
      rewrite (gw64_small (N.shiftr pa mm_PageShift)) by (apply PtTrans.shiftr_lt; eapply translate_lt; exact Et).
      change (N.lor vmm_FlagPresent vmm_FlagRW) with P_RW.
      unfold go_vmm_world_seam. wsimp. cbn [o_kmap].
      destruct (pdt_map kernel_slot (page_from_addr a) (N.shiftr pa mm_PageShift) P_RW s') as [[s1' e']|]; cbn [P.lift_op]; [|reflexivity].
      rewrite P.err_of_nil. destruct (e' =? 0); reflexivity. }
  destruct (resv_tr _ s3 (last s3) tr3) as [s4 a4 f4 tr4| |s4 e4 tr4]; try reflexivity.
Qed.

Theorem setup_kernel_is_translation_state off secs s tr0 fuel :
  off < two64 -> last s < two64 -> Forall sec_ok secs -> fuel_ok fuel off secs s ->
  match go_vmm_setupPDTForKernel fuel (W tr0 s) off o_kactivate o_kinit o_kmap M.o_alloc o_translate (nonempty secs) with
  | GOk (w, e) => GOk (f_world_mem w, e)
  | GPanic => GPanic
  | GFuel => GFuel
  end =
  match setup_kernel off secs s with
  | Stray => GPanic
  | Ok (s', e) => GOk (s', P.err_of e)
  end.
Proof.
  intros H1 H2 H3 H4. rewrite (setup_kernel_is_translation off secs s tr0 fuel H1 H2 H3 H4).
  rewrite <- (setup_kernel_tr_model off secs s tr0).
  destruct (setup_kernel_tr off secs s tr0) as [[[s' e] tr']|]; reflexivity.
Qed.
