(** The specification of Map's page-table walk, level by level (C04 [map_ok]). *)
From Coq Require Import NArith ZArith Lia List Bool.
From Coq Require Import ZifyBool ZifyN ZifyNat.
From FF Require Import Lib.Word Gen.Consts_mm_vmm Vmm.Region Vmm.Pt Vmm.PtMem Vmm.PtArith Vmm.PtTree.
Import ListNotations.
Local Open Scope N_scope.

(** frames the oracle will still hand out *)
Definition ofr (l : list N) : list N := filter (fun x => negb (x =? 0)) l.

Record Fresh (s : st) (own : ownmap) (A : N) : Prop := {
  fr_nodup : NoDup (ofr (orc s));
  fr_ok : forall f, In f (orc s) -> f <> 0 -> backed s f = true /\ own f = None /\ f <> A
}.

(** the invariant of an address space [T] operated on while [A] is the active root *)
Record Inv (s : st) (A T : N) (own : ownmap) : Prop := {
  inv_wf : WF s T own;
  inv_cr3 : N.shiftr (cr3 s) 12 = A;
  inv_rec : Rec s A T;
  inv_A : A = T \/ own A = None;
  inv_fresh : Fresh s own A
}.

Definition same_env (s s' : st) : Prop :=
  lo s' = lo s /\ cnt s' = cnt s /\ cr3 s' = cr3 s /\ slog s' = slog s /\ last s' = last s /\
  zf s' = zf s /\ prot s' = prot s /\ pdts s' = pdts s /\ inited s' = inited s.

Lemma same_env_refl s : same_env s s.
Proof. repeat split. Qed.

Lemma same_env_trans a b c : same_env a b -> same_env b c -> same_env a c.
Proof.
  unfold same_env. intros (A1&A2&A3&A4&A5&A6&A7&A8&A9) (B1&B2&B3&B4&B5&B6&B7&B8&B9).
  repeat split; congruence.
Qed.

Lemma same_env_backed s s' f : same_env s s' -> backed s' f = backed s f.
Proof. intros (H1 & H2 & _). unfold backed. rewrite H1, H2. reflexivity. Qed.

Lemma same_env_prot s s' : same_env s s' -> prot s' = prot s.
Proof. intros H. apply H. Qed.
Lemma same_env_zf s s' : same_env s s' -> zf s' = zf s.
Proof. intros H. apply H. Qed.
Lemma same_env_last s s' : same_env s s' -> last s' = last s.
Proof. intros H. apply H. Qed.

Lemma in_firstn {X} (x : X) n l : In x (firstn n l) -> In x l.
Proof. intros H. rewrite <- (firstn_skipn n l). apply in_or_app. left. exact H. Qed.

Lemma in_skipn {X} (x : X) n l : In x (skipn n l) -> In x l.
Proof. intros H. rewrite <- (firstn_skipn n l). apply in_or_app. right. exact H. Qed.

Lemma Forall_skipn {X} (P : X -> Prop) n l : Forall P l -> Forall P (skipn n l).
Proof.
  revert l. induction n as [|n IH]; intros l H; [exact H|]. destruct l as [|x l]; [constructor|].
  cbn [skipn]. inversion H; subst. apply IH. assumption.
Qed.

Lemma Forall_firstn {X} (P : X -> Prop) n l : Forall P l -> Forall P (firstn n l).
Proof.
  revert l. induction n as [|n IH]; intros l H; [constructor|]. destruct l as [|x l]; [constructor|].
  cbn [firstn]. inversion H; subst. constructor; [assumption | apply IH; assumption].
Qed.

Lemma Forall_firstn_le {X} (P : X -> Prop) k n l : (k <= n)%nat -> Forall P (firstn n l) -> Forall P (firstn k l).
Proof. intros Hk H. rewrite <- (Nat.min_l k n Hk), <- firstn_firstn. apply Forall_firstn. exact H. Qed.

Definition upd (own : ownmap) (f : N) (p : list N) : ownmap := fun x => if x =? f then Some p else own x.

(** [Inv] only depends on the entries of the roots and of the intermediate tables *)
Lemma Inv_ent_eq s s' A T own :
  Inv s A T own -> lo s' = lo s -> cnt s' = cnt s -> cr3 s' = cr3 s -> orc s' = orc s ->
  (forall f j, (f = A \/ f = T \/ exists p, own f = Some p /\ (length p < 3)%nat) -> ent s' f j = ent s f j) ->
  Inv s' A T own.
Proof.
  intros [W Hcr HR HA HF] Hlo Hcnt Hc3 Horc He.
  pose proof (backed_eq s s' Hlo Hcnt) as Hbk.
  split.
  - destruct W as [W1 W2 W3 W4 W5]. split.
    + rewrite Hlo, Hcnt. exact W1.
    + exact W2.
    + intros t p Ho. rewrite Hbk. exact (W3 t p Ho).
    + rewrite He by (right; left; reflexivity). exact W4.
    + intros t p i Ho Hl Hi Hne. rewrite He by (right; right; exists p; split; assumption).
      exact (W5 t p i Ho Hl Hi Hne).
  - rewrite Hc3. exact Hcr.
  - destruct HR as (R1 & R2 & R3 & R4 & R5 & R6). unfold Rec.
    rewrite !Hbk, (He A) by (left; reflexivity). rewrite (He T) by (right; left; reflexivity). repeat split; assumption.
  - exact HA.
  - destruct HF as [F1 F2]. split.
    + rewrite Horc. exact F1.
    + intros f Hin Hz. rewrite Horc in Hin. rewrite Hbk. exact (F2 f Hin Hz).
Qed.

Lemma ofr_cons x r : ofr (x :: r) = if x =? 0 then ofr r else x :: ofr r.
Proof. unfold ofr. cbn [filter]. destruct (x =? 0); reflexivity. Qed.

Lemma in_ofr x l : In x (ofr l) <-> In x l /\ x <> 0.
Proof.
  unfold ofr. rewrite filter_In. split; intros [H1 H2]; split; try assumption.
  - intros E. subst. discriminate.
  - apply negb_true_iff. apply N.eqb_neq. exact H2.
Qed.

Lemma ofr_head_fresh x r : NoDup (ofr (x :: r)) -> x <> 0 -> ~ In x r.
Proof.
  intros H Hx Hin. rewrite ofr_cons in H. destruct (N.eqb_spec x 0); [congruence|].
  inversion H as [|? ? Hnin _]; subst. apply Hnin. apply in_ofr. split; assumption.
Qed.

Lemma Inv_pop s A T own x r : Inv s A T own -> orc s = x :: r -> Inv (set_orc s r) A T own.
Proof.
  intros [W Hcr HR HA [F1 F2]] Eo. split; try assumption.
  - destruct W as [W1 W2 W3 W4 W5]. split; assumption.
  - split; cbn [orc set_orc].
    + rewrite Eo, ofr_cons in F1. destruct (x =? 0); [exact F1 | inversion F1; assumption].
    + intros f Hin Hz. apply (F2 f); [rewrite Eo; right; exact Hin | exact Hz].
Qed.

(** the second conjunct has the shape [follow_own] asks for *)
Lemma snoc_off_rec (pre : list N) i : hd 0 (pre ++ [i]) <> 511 -> pre ++ [i] <> [511] /\ hd 0 ([] ++ pre) <> 511.
Proof.
  intros H. split; [exact (path_ne_rec pre i [] H)|].
  destruct pre; cbn in *; [discriminate | exact H].
Qed.

(** entries after linking a new table [nf] at entry [i] of [t] (and clearing it when [z]) *)
Definition linked (z : bool) (s s' : st) (t i nf link : N) : Prop :=
  forall f j, ent s' f j = if z && (f =? nf) then 0 else if (f =? t) && (j =? i) then link else ent s f j.

Lemma follow_link z s s' A T own pre t i nf link :
  Inv s A T own -> follow s T pre = Some t -> own t = Some pre -> (length pre <= 2)%nat ->
  Forall (fun x => x < 512) pre -> i < 512 -> hd 0 (pre ++ [i]) <> 511 ->
  lo s' = lo s -> cnt s' = cnt s ->
  linked z s s' t i nf link ->
  hw_P link = true -> hw_PS link = false -> hw_frame link = nf ->
  backed s nf = true -> own nf = None -> nf <> A ->
  Rec s' A T /\ follow s' T (pre ++ [i]) = Some nf.
Proof.
  intros HI Hf Ho Hl Hlt Hi Hhd Hlo Hcnt He LP LPS LF Hbn Hon HnA.
  pose proof (inv_wf _ _ _ _ HI) as W.
  destruct (snoc_off_rec pre i Hhd) as [Hne Hhd0].
  pose proof (backed_eq s s' Hlo Hcnt) as Hbk.
  assert (HnT: nf <> T) by (intros E; rewrite E, (wf_root _ _ _ W) in Hon; discriminate).
  assert (Hnt: nf <> t) by (intros E; rewrite E, Ho in Hon; discriminate).
  assert (Hroot: forall r, (r = A \/ r = T) -> ent s' r 511 = ent s r 511).
  { intros r Hr. rewrite He.
    assert (r <> nf) by (destruct Hr; congruence).
    destruct (N.eqb_spec r nf); [congruence|]. rewrite andb_false_r.
    destruct (N.eqb_spec r t) as [Ert|]; [|reflexivity].
    destruct (N.eqb_spec 511 i) as [E5|]; [|reflexivity]. exfalso.
    assert (Hpre: pre = []).
    { destruct Hr as [Hr|Hr].
      - destruct (inv_A _ _ _ _ HI) as [HA|HA].
        + rewrite <- Ert, Hr, HA, (wf_root _ _ _ W) in Ho. inversion Ho. reflexivity.
        + rewrite <- Ert, Hr, HA in Ho. discriminate.
      - rewrite <- Ert, Hr, (wf_root _ _ _ W) in Ho. inversion Ho. reflexivity. }
    apply Hne. rewrite Hpre, <- E5. reflexivity. }
  split.
  - destruct (inv_rec _ _ _ _ HI) as (R1 & R2 & R3 & R4 & R5 & R6). unfold Rec.
    rewrite !Hbk, (Hroot A), (Hroot T) by auto. repeat split; assumption.
  - rewrite follow_app.
    assert (E: follow s' T pre = follow s T pre).
    { eapply (follow_frame s s' T own T []); try eassumption.
      - exact (wf_root _ _ _ W).
      - intros f q j Hq _ Hlq. cbn [length] in Hlq. rewrite He.
        assert (f <> nf) by (intros E; rewrite E, Hon in Hq; discriminate).
        destruct (N.eqb_spec f nf); [congruence|]. rewrite andb_false_r.
        destruct (N.eqb_spec f t) as [Eft|]; [|reflexivity].
        rewrite Eft, Ho in Hq. inversion Hq as [E2]. rewrite E2 in Hlq. lia.
      - cbn [length]. lia. }
    rewrite E, Hf. cbn [follow].
    destruct (wf_owned _ _ _ W t pre Ho) as (Hbt & _).
    rewrite Hbk, Hbt, He.
    destruct (N.eqb_spec t nf); [congruence|]. rewrite andb_false_r, !N.eqb_refl. cbn [andb].
    unfold usable. rewrite LP, LPS, LF. reflexivity.
Qed.

Lemma Inv_link s s3 A T own pre t i nf r link :
  Inv s A T own -> follow s T pre = Some t -> own t = Some pre -> (length pre <= 2)%nat ->
  Forall (fun x => x < 512) pre -> i < 512 -> hd 0 (pre ++ [i]) <> 511 ->
  hw_P (ent s t i) = false -> orc s = nf :: r -> nf <> 0 ->
  lo s3 = lo s -> cnt s3 = cnt s -> cr3 s3 = cr3 s -> orc s3 = r ->
  hw_P link = true -> hw_PS link = false -> hw_frame link = nf ->
  linked true s s3 t i nf link ->
  Inv s3 A T (upd own nf (pre ++ [i])).
Proof.
  intros HI Hf Ho Hl Hlt Hi Hhd HnP Eo Hnz Hlo Hcnt Hc3 Ho3 LP LPS LF He.
  pose proof (inv_wf _ _ _ _ HI) as W.
  destruct (inv_fresh _ _ _ _ HI) as [F1 F2].
  destruct (F2 nf) as (Hbn & Hon & HnA); [rewrite Eo; left; reflexivity | exact Hnz |].
  destruct (snoc_off_rec pre i Hhd) as [Hne Hhd0].
  pose proof (backed_eq s s3 Hlo Hcnt) as Hbk.
  assert (HnT: nf <> T) by (intros E; rewrite E, (wf_root _ _ _ W) in Hon; discriminate).
  assert (Hnt: nf <> t) by (intros E; rewrite E, Ho in Hon; discriminate).
  destruct (follow_link true s s3 A T own pre t i nf link HI Hf Ho Hl Hlt Hi Hhd Hlo Hcnt He LP LPS LF Hbn Hon HnA) as [HR3 _].
  assert (Hup: forall f, f <> nf -> upd own nf (pre ++ [i]) f = own f).
  { intros f Hne'. unfold upd. destruct (N.eqb_spec f nf); [congruence|reflexivity]. }
  assert (Hupn: upd own nf (pre ++ [i]) nf = Some (pre ++ [i])) by (unfold upd; rewrite N.eqb_refl; reflexivity).
  split.
  - destruct W as [W1 W2 W3 W4 W5]. split.
    + rewrite Hlo, Hcnt. exact W1.
    + rewrite Hup by congruence. exact W2.
    + intros f p. unfold upd. destruct (N.eqb_spec f nf) as [->|Hfn]; intros Hp.
      * inversion Hp; subst p. rewrite Hbk. split; [exact Hbn|]. split; [rewrite app_length; cbn; lia|].
        split; [apply Forall_app; split; [exact Hlt | constructor; [exact Hi | constructor]] | exact Hhd].
      * rewrite Hbk. exact (W3 f p Hp).
    + destruct HR3 as (_ & _ & _ & _ & R5 & R6). split; assumption.
    + intros f p j. unfold upd at 1. destruct (N.eqb_spec f nf) as [->|Hfn]; intros Hp Hlp Hj Hnej.
      * rewrite He, N.eqb_refl. cbn [andb]. split; [reflexivity | discriminate].
      * rewrite He. destruct (N.eqb_spec f nf); [congruence|]. rewrite andb_false_r.
        destruct (N.eqb_spec f t) as [Eft|Hft]; cbn [andb].
        -- destruct (N.eqb_spec j i) as [Eji|Hji].
           ++ split; [exact LPS|]. intros _. rewrite LF, Hupn.
              rewrite Eft, Ho in Hp. inversion Hp; subst p. rewrite Eji. reflexivity.
           ++ destruct (W5 f p j Hp Hlp Hj Hnej) as [P1 P2]. split; [exact P1|].
              intros HP. specialize (P2 HP). rewrite Hup; [exact P2|].
              intros E. rewrite E, Hon in P2. discriminate.
        -- destruct (W5 f p j Hp Hlp Hj Hnej) as [P1 P2]. split; [exact P1|].
           intros HP. specialize (P2 HP). rewrite Hup; [exact P2|].
           intros E. rewrite E, Hon in P2. discriminate.
  - rewrite Hc3. exact (inv_cr3 _ _ _ _ HI).
  - exact HR3.
  - destruct (inv_A _ _ _ _ HI) as [HA|HA]; [left; exact HA | right]. rewrite Hup by congruence. exact HA.
  - split.
    + rewrite Ho3. rewrite Eo, ofr_cons in F1. destruct (N.eqb_spec nf 0); [congruence|]. inversion F1; assumption.
    + intros f Hin Hz. rewrite Ho3 in Hin. rewrite Hbk.
      destruct (F2 f) as (B1 & B2 & B3); [rewrite Eo; right; exact Hin | exact Hz |].
      split; [exact B1|]. split; [|exact B3].
      rewrite Hup; [exact B2|]. intros E. subst f.
      rewrite Eo in F1. eapply (ofr_head_fresh nf r); eassumption.
Qed.

Section Level.
  Variables (A T pg va leafv : N).
  Hypothesis Hva : forall k, k <= 3 -> hw_idx (N.shiftr va 12) k = hw_idx pg k.

  Definition ix (k : nat) : N := nth k (ixs pg) 0.

  (** every walk of the Go code goes through the four levels of [go_levels] in the same way: what holds of the
      last level alone, and carries from the levels below a table to the levels from it, holds of the whole walk *)
  Lemma four_levels (P : list (N * N) -> N -> nat -> list N -> Prop) :
    (forall pre sh rest, (length pre <= 2)%nat -> entry_index va sh 9 = ix (length pre) ->
       level_bits (N.of_nat (length pre) + 1) = 9 -> (N.of_nat (length pre) =? last_level) = false ->
       P rest (N.of_nat (length pre) + 1) (S (length pre)) (pre ++ [ix (length pre)]) ->
       P ((sh, 9) :: rest) (N.of_nat (length pre)) (length pre) pre) ->
    P [(12, 9)] 3 3%nat [ix 0; ix 1; ix 2] -> P go_levels 0 0%nat [].
  Proof. clear A T leafv.
    intros Step Leaf. destruct (entry_index_hw va) as (E0 & E1 & E2 & _). rewrite go_levels_val.
    refine (Step [] 39 _ _ _ _ _ _); [cbn [length]; lia | rewrite E0, Hva by lia; reflexivity | reflexivity | reflexivity|].
    refine (Step [ix 0] 30 _ _ _ _ _ _); [cbn [length]; lia | rewrite E1, Hva by lia; reflexivity | reflexivity | reflexivity|].
    refine (Step [ix 0; ix 1] 21 _ _ _ _ _ _); [cbn [length]; lia | rewrite E2, Hva by lia; reflexivity | reflexivity | reflexivity|].
    exact Leaf.
  Qed.

  Definition Pre (pre : list N) (s : st) (own : ownmap) (t : N) : Prop :=
    Inv s A T own /\ follow s T pre = Some t /\ pre = firstn (length pre) (ixs pg) /\ hw_idx pg 0 <> 511.

  Definition Post (pre : list N) (s : st) (own : ownmap) (t : N) (s' : st) (err : N) (own' : ownmap) : Prop :=
    Inv s' A T own' /\ same_env s s' /\
    (err = 0 \/ err = E_ALLOC) /\
    (exists n, orc s' = skipn n (orc s) /\ (n <= 3 - length pre)%nat /\
       forall f, own' f = own f \/ (own f = None /\ In f (firstn n (orc s)) /\ f <> 0 /\ under pre (own' f))) /\
    (forall f i, ~ under pre (own' f) -> ent s' f i = ent s f i) /\
    (forall j, j <> ix (length pre) -> ent s' t j = ent s t j) /\
    (err = 0 -> look s' t (skipn (length pre) (ixs pg)) = Some leafv) /\
    (forall is', length is' = (4 - length pre)%nat -> Forall (fun x => x < 512) is' -> hd 0 (pre ++ is') <> 511 ->
                 (err = 0 -> is' <> skipn (length pre) (ixs pg)) -> lookP s' t is' = lookP s t is') /\
    (err = 0 -> flog s' = va :: flog s) /\ (err <> 0 -> flog s' = flog s) /\
    (forall f q i, own f = None -> own' f = Some q -> ent s' f i <> 0 -> exists j, q ++ [i] = firstn j (ixs pg)) /\
    (* entries of existing tables off the page's path are untouched; so are present upper-level entries *)
    (forall f p i, own f = Some p -> p ++ [i] <> firstn (S (length p)) (ixs pg) -> ent s' f i = ent s f i) /\
    (forall f p i, own f = Some p -> (length p < 3)%nat -> hw_P (ent s f i) = true -> ent s' f i = ent s f i) /\
    (* with enough frames in the oracle the walk succeeds *)
    ((3 - length pre <= length (orc s))%nat -> Forall (fun x => x <> 0) (firstn (3 - length pre) (orc s)) -> err = 0).

  (** what [Pre] gives about the current table *)
  Lemma pre_table pre s own t :
    Pre pre s own t -> (length pre <= 3)%nat ->
    own t = Some pre /\ backed s t = true /\ Forall (fun x => x < 512) pre /\ ix (length pre) < 512 /\
    hd 0 (pre ++ [ix (length pre)]) <> 511 /\ pre ++ [ix (length pre)] = firstn (S (length pre)) (ixs pg).
  Proof. clear Hva.
    intros (HI & Hf & Hp & H511) Hl.
    assert (Hlt: Forall (fun x => x < 512) pre).
    { rewrite Hp. apply Forall_forall. intros x Hx. apply (proj1 (Forall_forall _ _) (ixs_lt pg)).
      eapply in_firstn. exact Hx. }
    assert (Hhd: hd 0 pre <> 511 \/ pre = []).
    { destruct pre as [|a r]; [right; reflexivity|left]. rewrite Hp. cbn. exact H511. }
    assert (Ho: own t = Some pre).
    { change pre with ([] ++ pre). eapply follow_own; try exact Hf.
      - exact (inv_wf _ _ _ _ HI).
      - exact (wf_root _ _ _ (inv_wf _ _ _ _ HI)).
      - exact Hlt.
      - cbn. lia.
      - cbn. destruct Hhd as [H|H]; [exact H| subst; cbn; discriminate]. }
    destruct (wf_owned _ _ _ (inv_wf _ _ _ _ HI) t pre Ho) as (Hb & _ & _ & _).
    assert (Hix: ix (length pre) < 512).
    { unfold ix. destruct (Nat.lt_ge_cases (length pre) 4) as [H4|H4].
      - apply (proj1 (Forall_forall _ _) (ixs_lt pg)). apply nth_In. rewrite ixs_length. exact H4.
      - lia. }
    assert (Hsn: pre ++ [ix (length pre)] = firstn (S (length pre)) (ixs pg)).
    { unfold ix. rewrite Hp at 1. rewrite Hp at 3.
      rewrite firstn_length, ixs_length. replace (Nat.min (length pre) 4) with (length pre) by lia.
      unfold ixs.
      destruct (length pre) as [|[|[|[|n]]]]; cbn [firstn nth app]; try reflexivity. lia. }
    repeat split; try assumption.
    rewrite Hsn. unfold ixs. cbn. exact H511.
  Qed.

  Lemma ent_wr s t i v f j : ent (wr_st s t i v) f j = if (f =? t) && (j =? i) then v else ent s f j.
  Proof. clear Hva. unfold ent, wr_st. cbn [mem set_mem]. apply rd_wr. Qed.

  Lemma ent_flush s a f j : ent (flush s a) f j = ent s f j.
  Proof. clear Hva. reflexivity. Qed.

  (** the last level: write the leaf entry, flush *)
  Lemma map_leaf pre s own t frame flags :
    length pre = 3%nat -> Pre pre s own t -> leafv = set_flags (set_frame 0 frame) flags ->
    exists s', map_walk [(12, 9)] 3 (wwin pre) va frame flags s = Ok (s', 0) /\ Post pre s own t s' 0 own.
  Proof.
    intros Hl HP Hleaf.
    destruct (pre_table pre s own t HP ltac:(lia)) as (Ho & Hb & Hlt & Hix & Hhd & Hsn).
    destruct HP as (HI & Hf & Hp & H511).
    rewrite Hl in Hix, Hhd, Hsn.
    assert (Hne0: pre <> []) by (intros E; rewrite E in Hl; discriminate).
    assert (Hix3: ix 3 = hw_idx pg 3) by reflexivity.
    assert (Hres: resolve s (entry_addr (wwin pre) va 12 9) = Some (t, ix 3)).
    { unfold entry_addr. rewrite pointer_shift_val.
      destruct (entry_index_hw va) as (_ & _ & _ & E3). rewrite E3, Hva by lia. rewrite <- Hix3.
      eapply resolve_entry; try eassumption.
      - exact (inv_cr3 _ _ _ _ HI).
      - exact (inv_rec _ _ _ _ HI).
      - lia. }
    exists (flush (wr_st s t (ix 3) leafv) va). split.
    { cbn [map_walk]. rewrite Hres. change (3 =? last_level) with true. cbn iota. rewrite Hleaf. reflexivity. }
    set (s' := flush (wr_st s t (ix 3) leafv) va).
    assert (He: forall f j, ent s' f j = if (f =? t) && (j =? ix 3) then leafv else ent s f j).
    { intros. unfold s'. rewrite ent_flush. apply ent_wr. }
    assert (Hnt: forall f, f <> t -> forall j, ent s' f j = ent s f j).
    { intros f Hne j. rewrite He. destruct (N.eqb_spec f t); [congruence|reflexivity]. }
    pose proof (inv_wf _ _ _ _ HI) as W.
    unfold Post. rewrite Hl.
    split; [|split; [|split; [|split; [|split; [|split; [|split; [|split; [|split; [|split; [|split; [|split; [|split]]]]]]]]]]]].
    - apply (Inv_ent_eq s s' A T own HI); try reflexivity.
      intros f j [-> | [-> | (p & Hop & Hlp)]]; apply Hnt.
      + destruct (inv_A _ _ _ _ HI) as [HA | HA]; intros E.
        * rewrite HA in E. rewrite <- E, (wf_root _ _ _ W) in Ho. inversion Ho as [E2]. congruence.
        * rewrite E in HA. congruence.
      + intros E. rewrite <- E, (wf_root _ _ _ W) in Ho. inversion Ho as [E2]. congruence.
      + intros E. rewrite E, Ho in Hop. inversion Hop as [E2]. rewrite <- E2 in Hlp. lia.
    - repeat split.
    - left; reflexivity.
    - exists 0%nat. split; [reflexivity|]. split; [lia|]. intros f. left. reflexivity.
    - intros f i Hu. apply Hnt. intros E. apply Hu. rewrite E, Ho. apply under_self.
    - intros j Hj. rewrite He. rewrite N.eqb_refl. cbn [andb]. destruct (N.eqb_spec j (ix 3)); [congruence|reflexivity].
    - intros _. change (skipn 3 (ixs pg)) with [ix 3]. rewrite look_one.
      replace (backed s' t) with (backed s t) by reflexivity. rewrite Hb, He, !N.eqb_refl. reflexivity.
    - intros is' Hlen Hlt' Hhd' Hne. cbn in Hlen.
      destruct is' as [|j [|j2 r]]; try discriminate.
      assert (Hj: j <> ix 3).
      { intros E; subst. apply Hne; reflexivity. }
      unfold lookP. rewrite !look_one. replace (backed s' t) with (backed s t) by reflexivity.
      rewrite He, N.eqb_refl. cbn [andb]. destruct (N.eqb_spec j (ix 3)); [congruence|reflexivity].
    - intros _. reflexivity.
    - intros H. congruence.
    - intros f q i Hn Hs. congruence.
    - intros f p0 i Hp0 Hoff. rewrite He.
      destruct (N.eqb_spec f t) as [Eft|]; [|reflexivity]. destruct (N.eqb_spec i (ix 3)) as [Ei|]; [|reflexivity].
      exfalso. apply Hoff. rewrite Eft, Ho in Hp0. inversion Hp0 as [Ep]. rewrite <- Ep, Ei, Hl. exact Hsn.
    - intros f p0 i Hp0 Hlp _. apply Hnt. intros E. rewrite E, Ho in Hp0. inversion Hp0 as [Ep]. rewrite <- Ep in Hlp. lia.
    - intros _ _. reflexivity.
  Qed.

  Lemma skipn_ix k : (k <= 3)%nat -> skipn k (ixs pg) = ix k :: skipn (S k) (ixs pg).
  Proof. clear Hva.
    intros Hk. unfold ix, ixs. destruct k as [|[|[|[|n]]]]; cbn; try reflexivity. lia.
  Qed.

  Lemma Post_fail pre s own t s1 :
    Inv s1 A T own -> same_env s s1 -> (forall f j, ent s1 f j = ent s f j) ->
    (exists n, orc s1 = skipn n (orc s) /\ (n <= 3 - length pre)%nat) -> flog s1 = flog s ->
    ((3 - length pre <= length (orc s))%nat -> Forall (fun x => x <> 0) (firstn (3 - length pre) (orc s)) -> False) ->
    Post pre s own t s1 E_ALLOC own.
  Proof. clear Hva.
    intros HI Hse He (n & Hn & Hnb) Hfl Hen. unfold Post.
    destruct Hse as (E1 & E2 & Hrest).
    split; [exact HI|]. split; [repeat split; tauto|]. split; [right; reflexivity|].
    split; [exists n; split; [exact Hn | split; [exact Hnb | intros f; left; reflexivity]]|].
    split; [intros; apply He|]. split; [intros; apply He|].
    split; [intros H; discriminate|].
    split; [intros; unfold lookP; rewrite (look_ext s s1) by assumption; reflexivity|].
    split; [intros H; discriminate|]. split; [intros _; exact Hfl|].
    split; [intros f q i H1 H2; congruence|].
    split; [intros; apply He|]. split; [intros; apply He|].
    intros H1 H2. exfalso. exact (Hen H1 H2).
  Qed.

  (** one level of any walk: the entry read at the window address of [pre] is entry [ix |pre|] of the table [pre]
      leads to; shifted, the address is the window address one level down *)
  Lemma descend_step pre sh s own t :
    (length pre <= 2)%nat -> entry_index va sh 9 = ix (length pre) -> Pre pre s own t ->
    resolve s (entry_addr (wwin pre) va sh 9) = Some (t, ix (length pre)) /\
    shl64 (entry_addr (wwin pre) va sh 9) 9 = wwin (pre ++ [ix (length pre)]) /\
    hw_PS (ent s t (ix (length pre))) = false /\
    skipn (length pre) (ixs pg) = ix (length pre) :: skipn (S (length pre)) (ixs pg) /\
    (hw_P (ent s t (ix (length pre))) = true ->
       Pre (pre ++ [ix (length pre)]) s own (hw_frame (ent s t (ix (length pre))))).
  Proof. clear Hva.
    intros Hl Hidx HP.
    destruct (pre_table pre s own t HP ltac:(lia)) as (Ho & Hb & Hlt & Hix & Hhd & Hsn).
    destruct HP as (HI & Hf & Hp & H511).
    set (i := ix (length pre)) in *.
    pose proof (inv_wf _ _ _ _ HI) as W.
    destruct (snoc_off_rec pre i Hhd) as [Hne Hhd0].
    destruct (wf_child _ _ _ W t pre i Ho ltac:(lia) Hix Hne) as [HPS Hchild].
    split.
    { unfold entry_addr. rewrite pointer_shift_val, Hidx.
      eapply resolve_entry; try eassumption.
      - exact (inv_cr3 _ _ _ _ HI).
      - exact (inv_rec _ _ _ _ HI).
      - lia. }
    split.
    { unfold entry_addr. rewrite pointer_shift_val, Hidx. apply wwin_next; assumption. }
    split; [exact HPS|].
    split; [apply skipn_ix; lia|].
    intros HPres. split; [exact HI|]. split.
    { rewrite follow_app, Hf. cbn [follow]. rewrite Hb. unfold usable. rewrite HPres, HPS. reflexivity. }
    split; [|exact H511].
    rewrite app_length. cbn [length]. replace (length pre + 1)%nat with (S (length pre)) by lia. exact Hsn.
  Qed.

  (** Map finds the entry empty and takes frame [nf] from the allocator: linked in and cleared, it is the table
      one level down *)
  Lemma level_alloc pre s own t nf r :
    (length pre <= 2)%nat -> Pre pre s own t -> hw_P (ent s t (ix (length pre))) = false -> orc s = nf :: r -> nf <> 0 ->
    let i := ix (length pre) in
    let link := set_flags (set_frame 0 nf) P_RW in
    let s2 := wr_st (set_orc s r) t i link in
    let s3 := set_mem s2 (zero (mem s2) nf) in
    hw_P link = true /\ hw_PS link = false /\ hw_frame link = nf /\ backed s nf = true /\ own nf = None /\
    resolve_page s2 (wwin (pre ++ [i])) = Some nf /\ linked true s s3 t i nf link /\
    Pre (pre ++ [i]) s3 (upd own nf (pre ++ [i])) nf.
  Proof. clear Hva.
    intros Hl HP HPres Eo Hx0 i link s2 s3.
    destruct (pre_table pre s own t HP ltac:(lia)) as (Ho & Hb & Hlt & Hix & Hhd & Hsn).
    destruct HP as (HI & Hf & Hp & H511). fold i in Hix, Hhd, Hsn.
    pose proof (inv_wf _ _ _ _ HI) as W.
    destruct (inv_fresh _ _ _ _ HI) as [F1 F2].
    destruct (F2 nf) as (Hbn & Hon & HnA); [rewrite Eo; left; reflexivity | exact Hx0 |].
    assert (Hnf40: nf < 2 ^ 40) by (eapply backed_lt40; [exact (wf_arena _ _ _ W) | exact Hbn]).
    destruct (link_entry nf Hnf40) as (LP & LPS & LF). fold link in LP, LPS, LF.
    assert (He2: linked false s s2 t i nf link).
    { intros f j. cbn [andb]. unfold s2. rewrite ent_wr. reflexivity. }
    destruct (follow_link false s s2 A T own pre t i nf link HI Hf Ho Hl Hlt Hix Hhd eq_refl eq_refl He2 LP LPS LF Hbn Hon HnA) as [HR2 Hf2].
    assert (Hlen1: length (pre ++ [i]) = S (length pre)) by (rewrite app_length; cbn; lia).
    assert (He3: linked true s s3 t i nf link).
    { intros f j. unfold s3, ent. cbn [mem set_mem]. rewrite rd_zero. cbn [andb].
      destruct (N.eqb_spec f nf); [reflexivity|]. apply He2. }
    destruct (follow_link true s s3 A T own pre t i nf link HI Hf Ho Hl Hlt Hix Hhd eq_refl eq_refl He3 LP LPS LF Hbn Hon HnA) as [HR3 Hf3].
    split; [exact LP|]. split; [exact LPS|]. split; [exact LF|]. split; [exact Hbn|]. split; [exact Hon|].
    split.
    { eapply (resolve_page_win s2 A T); try eassumption.
      - exact (inv_cr3 _ _ _ _ HI).
      - rewrite Hlen1. lia.
      - apply Forall_app; split; [exact Hlt | constructor; [exact Hix | constructor]]. }
    split; [exact He3|].
    split; [eapply (Inv_link s s3 A T own pre t i nf r link); try eassumption; reflexivity|].
    split; [exact Hf3|]. split; [rewrite Hlen1; exact Hsn | exact H511].
  Qed.

  (** what the walk from the table behind a present entry establishes, it establishes from here *)
  Lemma Post_present pre s own t s' err own' :
    (length pre <= 2)%nat -> Pre pre s own t -> hw_P (ent s t (ix (length pre))) = true ->
    Post (pre ++ [ix (length pre)]) s own (hw_frame (ent s t (ix (length pre)))) s' err own' -> Post pre s own t s' err own'.
  Proof. clear Hva.
    intros Hl HP HPres HQ.
    destruct (pre_table pre s own t HP ltac:(lia)) as (Ho & Hb & Hlt & Hix & Hhd & Hsn).
    pose proof HP as (HI & Hf & Hp & H511).
    set (i := ix (length pre)) in *.
    pose proof (inv_wf _ _ _ _ HI) as W.
    destruct (wf_child _ _ _ W t pre i Ho ltac:(lia) Hix (path_ne_rec pre i [] Hhd)) as [HPS _].
    assert (Hlen1: length (pre ++ [i]) = S (length pre)) by (rewrite app_length; cbn; lia).
    assert (Hpre1: pre ++ [i] = firstn (length (pre ++ [i])) (ixs pg)) by (rewrite Hlen1; exact Hsn).
    assert (Hskip: skipn (length pre) (ixs pg) = i :: skipn (length (pre ++ [i])) (ixs pg)) by (rewrite Hlen1; apply skipn_ix; lia).
    set (c := hw_frame (ent s t i)) in *.
    destruct HQ as (QI & Qenv & Qerr & (n & Qn & Qnb & Qown) & Qfr & Qt & Qlook & Qoth & Qf1 & Qf2 & Qnew & Qoff & Qpres & Qen).
    assert (Hown't: own' t = Some pre).
    { destruct (Qown t) as [E | (E & _)]; [rewrite E; exact Ho | rewrite Ho in E; discriminate]. }
    assert (Htfix: forall j, ent s' t j = ent s t j).
    { intros j. apply Qfr. rewrite Hown't. apply not_under_shorter. rewrite Hlen1. apply Nat.lt_succ_diag_r. }
    assert (Hbk: forall f, backed s' f = backed s f) by (intros; apply same_env_backed; exact Qenv).
    unfold Post.
    split; [exact QI|]. split; [exact Qenv|]. split; [exact Qerr|].
    split.
    { exists n. split; [exact Qn|]. split; [clear -Qnb Hlen1; lia|].
      intros f. destruct (Qown f) as [E | (E1 & E2 & E3 & E4)]; [left; exact E | right].
      repeat split; try assumption. eapply under_app; exact E4. }
    split.
    { intros f j Hu. apply Qfr. intros Hu'. apply Hu. eapply under_app; exact Hu'. }
    split; [intros j _; apply Htfix|].
    split.
    { intros He0. rewrite Hskip.
      destruct (skipn (length (pre ++ [i])) (ixs pg)) as [|i2 r2] eqn:Esk.
      - exfalso. apply (f_equal (@length N)) in Esk. rewrite skipn_length, ixs_length, Hlen1 in Esk. cbn [length] in Esk. clear -Esk Hl. lia.
      - rewrite look_cons, Hbk, Hb, Htfix. unfold usable. rewrite HPres, HPS. cbn [andb negb]. exact (Qlook He0). }
    split.
    { intros is' Hlen' Hlt' Hhd' Hne'.
      destruct is' as [|i' r']; [cbn [length] in Hlen'; lia|].
      destruct r' as [|i2 r2]; [cbn [length] in Hlen'; lia|].
      unfold lookP. rewrite !look_cons, Hbk, Htfix.
      destruct (backed s t && usable (ent s t i')) eqn:Eu; [|reflexivity].
      inversion Hlt' as [|? ? Hi' Hr']; subst.
      destruct (N.eq_dec i' i) as [->|Hii].
      +
        fold c. apply (Qoth (i2 :: r2)).
        * clear -Hlen' Hlen1. cbn [length] in *. lia.
        * exact Hr'.
        * rewrite <- app_assoc. exact Hhd'.
        * intros He0 E. apply (Hne' He0). rewrite Hskip, E. reflexivity.
      +
        apply andb_prop in Eu.
        pose proof (wf_child_own s T own t pre i' (i2 :: r2) W Ho ltac:(clear -Hl; lia) Hi' Hhd' (proj2 Eu)) as Hc'.
        assert (EQ: look s' (hw_frame (ent s t i')) (i2 :: r2) = look s (hw_frame (ent s t i')) (i2 :: r2)).
        { destruct Qenv as (E1 & E2 & _).
          eapply (look_frame s s' T own _ (pre ++ [i'])); try eassumption.
          * intros f q j Hq Hu _. apply Qfr.
            destruct (Qown f) as [E | (E & _)]; [|rewrite Hq in E; discriminate].
            rewrite E, Hq. cbn in Hu.
            rewrite <- (firstn_skipn (length (pre ++ [i'])) q), Hu. rewrite <- app_assoc. apply not_under_sibling. congruence.
          * clear -Hlen' Hl. rewrite app_length. cbn [length] in *. lia.
          * rewrite <- app_assoc. exact Hhd'. }
        rewrite EQ. reflexivity. }
    split; [exact Qf1|]. split; [exact Qf2|].
    split; [exact Qnew|]. split; [exact Qoff|]. split; [exact Qpres|].
    intros Hlen Hnz. rewrite Hlen1 in Qen. apply Qen; [clear -Hlen; lia|].
    apply (Forall_firstn_le _ _ (3 - length pre)); [clear; lia | exact Hnz].
  Qed.

  (** ... and so it does from the table that [level_alloc] has just linked in *)
  Lemma Post_alloc pre s own t nf r s' err own' :
    (length pre <= 2)%nat -> Pre pre s own t -> hw_P (ent s t (ix (length pre))) = false -> orc s = nf :: r -> nf <> 0 ->
    let i := ix (length pre) in
    let link := set_flags (set_frame 0 nf) P_RW in
    let s2 := wr_st (set_orc s r) t i link in
    let s3 := set_mem s2 (zero (mem s2) nf) in
    Post (pre ++ [i]) s3 (upd own nf (pre ++ [i])) nf s' err own' -> Post pre s own t s' err own'.
  Proof. clear Hva.
    intros Hl HP HPres Eo Hx0 i0 link s2 s3 HQ.
    destruct (level_alloc pre s own t nf r Hl HP HPres Eo Hx0) as (LP & LPS & LF & Hbn & Hon & Hrp & He3 & HI3 & Hf3 & _ & _).
    fold i0 link s2 s3 in LP, LPS, LF, Hrp, He3, HI3, Hf3. subst i0.
    destruct (pre_table pre s own t HP ltac:(lia)) as (Ho & Hb & Hlt & Hix & Hhd & Hsn).
    pose proof HP as (HI & Hf & Hp & H511).
    set (i := ix (length pre)) in *.
    pose proof (inv_wf _ _ _ _ HI) as W.
    destruct (wf_child _ _ _ W t pre i Ho ltac:(lia) Hix (path_ne_rec pre i [] Hhd)) as [HPS _].
    assert (Hlen1: length (pre ++ [i]) = S (length pre)) by (rewrite app_length; cbn; lia).
    assert (Hpre1: pre ++ [i] = firstn (length (pre ++ [i])) (ixs pg)) by (rewrite Hlen1; exact Hsn).
    assert (Hskip: skipn (length pre) (ixs pg) = i :: skipn (length (pre ++ [i])) (ixs pg)) by (rewrite Hlen1; apply skipn_ix; lia).
    destruct HQ as (QI & Qenv & Qerr & (n & Qn & Qnb & Qown) & Qfr & Qt & Qlook & Qoth & Qf1 & Qf2 & Qnew & Qoff & Qpres & Qen).
    assert (Hnt: nf <> t) by (intros E; rewrite E, Ho in Hon; discriminate).
    assert (Hupo: forall f, f <> nf -> upd own nf (pre ++ [i]) f = own f).
    { intros f Hne'. unfold upd. destruct (N.eqb_spec f nf); [congruence|reflexivity]. }
    assert (Hupn: upd own nf (pre ++ [i]) nf = Some (pre ++ [i])) by (unfold upd; rewrite N.eqb_refl; reflexivity).
    assert (Hown'n: own' nf = Some (pre ++ [i])).
    { destruct (Qown nf) as [E | (E & _)]; [rewrite E; exact Hupn | rewrite Hupn in E; discriminate]. }
    assert (Hown't: own' t = Some pre).
    { destruct (Qown t) as [E | (E & _)]; rewrite Hupo in E by congruence; [rewrite E; exact Ho | rewrite Ho in E; discriminate]. }
    assert (Htfix: forall j, ent s' t j = ent s3 t j).
    { intros j. apply Qfr. rewrite Hown't. apply not_under_shorter. rewrite Hlen1. apply Nat.lt_succ_diag_r. }
    assert (Henv: same_env s s').
    { eapply same_env_trans; [|exact Qenv]. repeat split. }
    assert (Hbk: forall f, backed s' f = backed s f) by (intros; apply same_env_backed; exact Henv).
    assert (Hz3: forall j, ent s3 nf j = 0).
    { intros j. rewrite He3, N.eqb_refl. reflexivity. }
    assert (Ht3: ent s3 t i = link).
    { rewrite He3. destruct (N.eqb_spec t nf); [congruence|]. rewrite !N.eqb_refl. reflexivity. }
    unfold Post.
    split; [exact QI|]. split; [exact Henv|]. split; [exact Qerr|].
    split.
    { exists (S n). split; [rewrite Eo; cbn [skipn]; exact Qn|]. split; [clear -Qnb Hlen1 Hl; lia|].
      intros f. destruct (N.eq_dec f nf) as [->|Hfn].
      - right. rewrite Hown'n, Eo. repeat split; try assumption.
        + left. reflexivity.
        + apply under_ext.
      - destruct (Qown f) as [E | (E1 & E2 & E3 & E4)]; rewrite Hupo in * by exact Hfn; [left; exact E | right].
        repeat split; try assumption.
        + rewrite Eo. cbn [firstn]. right. exact E2.
        + eapply under_app; exact E4. }
    split.
    { intros f j Hu. rewrite Qfr by (intros Hu'; apply Hu; eapply under_app; exact Hu').
      rewrite He3.
      destruct (N.eqb_spec f nf) as [->|Hfn]; [exfalso; apply Hu; rewrite Hown'n; apply under_ext|]. cbn [andb].
      destruct (N.eqb_spec f t) as [->|Hft]; [exfalso; apply Hu; rewrite Hown't; apply under_self|]. reflexivity. }
    split.
    { intros j Hj. rewrite Htfix, He3. destruct (N.eqb_spec t nf); [congruence|]. cbn [andb].
      rewrite N.eqb_refl. destruct (N.eqb_spec j i) as [Eji|]; [exact (False_ind _ (Hj Eji))|reflexivity]. }
    split.
    { intros He0. rewrite Hskip.
      destruct (skipn (length (pre ++ [i])) (ixs pg)) as [|i2 r2] eqn:Esk.
      - exfalso. apply (f_equal (@length N)) in Esk. rewrite skipn_length, ixs_length, Hlen1 in Esk. cbn [length] in Esk. clear -Esk Hl. lia.
      - rewrite look_cons, Hbk, Hb, Htfix, Ht3. unfold usable. rewrite LP, LPS, LF. cbn [andb negb]. exact (Qlook He0). }
    split.
    { intros is' Hlen' Hlt' Hhd' Hne'.
      destruct is' as [|i' r']; [cbn [length] in Hlen'; lia|].
      destruct r' as [|i2 r2]; [cbn [length] in Hlen'; lia|].
      pose proof (Forall_inv Hlt') as Hi'. pose proof (Forall_inv_tail Hlt') as Hr'.
      unfold lookP. rewrite !look_cons, Hbk, Htfix.
      destruct (N.eq_dec i' i) as [->|Hii].
      + (* inside the new table: nothing was mapped there before, nothing else is now *)
        rewrite Ht3. unfold usable at 1. rewrite LP, LPS, LF. unfold usable. rewrite HPres. cbn [andb negb].
        rewrite Hb. cbn [andb].
        assert (EQ: lookP s' nf (i2 :: r2) = lookP s3 nf (i2 :: r2)).
        { apply Qoth.
          - clear -Hlen' Hlen1. cbn [length] in *. lia.
          - exact Hr'.
          - rewrite <- app_assoc. exact Hhd'.
          - intros He0 E. apply (Hne' He0). rewrite Hskip, E. reflexivity. }
        unfold lookP in EQ. rewrite EQ.
        pose proof (lookP_zero_table s3 nf (i2 :: r2) Hz3) as Z. unfold lookP in Z. exact Z.
      +
        rewrite He3. destruct (N.eqb_spec t nf); [congruence|]. cbn [andb].
        destruct (N.eqb_spec i' i); [congruence|]. rewrite andb_false_r.
        destruct (backed s t && usable (ent s t i')) eqn:Eu; [|reflexivity].
        apply andb_prop in Eu.
        pose proof (wf_child_own s T own t pre i' (i2 :: r2) W Ho ltac:(clear -Hl; lia) Hi' Hhd' (proj2 Eu)) as Hc'.
        assert (EQ: look s' (hw_frame (ent s t i')) (i2 :: r2) = look s (hw_frame (ent s t i')) (i2 :: r2)); [|rewrite EQ; reflexivity].
        destruct Henv as (E1 & E2 & _).
        eapply (look_frame s s' T own _ (pre ++ [i'])); try eassumption.
        * intros f q j Hq Hu _.
          assert (Hfn: f <> nf) by (intros E; rewrite E, Hon in Hq; discriminate).
          assert (Hnu: ~ under (pre ++ [i]) (own' f)).
          { destruct (Qown f) as [E | (E & _)]; rewrite Hupo in E by exact Hfn; [|rewrite Hq in E; discriminate].
            rewrite E, Hq. cbn in Hu.
            rewrite <- (firstn_skipn (length (pre ++ [i'])) q), Hu. rewrite <- app_assoc. apply not_under_sibling. congruence. }
          rewrite (Qfr f j Hnu), He3.
          destruct (N.eqb_spec f nf); [congruence|]. cbn [andb].
          destruct (N.eqb_spec f t) as [Eft|]; [|reflexivity].
          exfalso. rewrite Eft, Ho in Hq. inversion Hq as [Eq]. rewrite <- Eq in Hu. cbn in Hu.
          apply (f_equal (@length N)) in Hu. rewrite firstn_length, app_length in Hu. cbn in Hu. clear -Hu. lia.
        * clear -Hlen' Hl. rewrite app_length. cbn [length] in *. lia.
        * rewrite <- app_assoc. exact Hhd'. }
    split; [intros He0; rewrite (Qf1 He0); reflexivity|].
    split; [intros He0; rewrite (Qf2 He0); reflexivity|].
    split.
    { intros f q j Hof Hq Hnz.
      destruct (N.eq_dec f nf) as [->|Hfn].
      + rewrite Hown'n in Hq. inversion Hq; subst q.
        destruct (N.eq_dec j (ix (length (pre ++ [i])))) as [->|Hj].
        * exists (S (length (pre ++ [i]))).
          assert (Hp2: Pre (pre ++ [i]) s3 (upd own nf (pre ++ [i])) nf) by (split; [exact HI3|]; split; [exact Hf3|]; split; [exact Hpre1 | exact H511]).
          destruct (pre_table (pre ++ [i]) s3 _ nf Hp2 ltac:(rewrite Hlen1; lia)) as (_ & _ & _ & _ & _ & E). exact E.
        * exfalso. apply Hnz. rewrite (Qt j Hj). apply Hz3.
      + apply (Qnew f q j); [rewrite Hupo by exact Hfn; exact Hof | exact Hq | exact Hnz]. }
    assert (H3s: forall f p j, own f = Some p -> (f <> t \/ j <> i) -> ent s3 f j = ent s f j).
    { intros f p j Hq0 Hd. rewrite He3.
      destruct (N.eqb_spec f nf) as [E|]; [rewrite E, Hon in Hq0; discriminate|]. cbn [andb].
      destruct (N.eqb_spec f t); destruct (N.eqb_spec j i); cbn [andb]; try reflexivity. destruct Hd; congruence. }
    split.
    { intros f p j Hq0 Hoff.
      assert (Hfn: f <> nf) by (intros E; rewrite E, Hon in Hq0; discriminate).
      rewrite (Qoff f p j); [|rewrite Hupo by exact Hfn; exact Hq0 | exact Hoff].
      apply (H3s f p j Hq0).
      destruct (N.eq_dec f t) as [Eft|]; [|left; assumption]. right. intros Ej. apply Hoff.
      rewrite Eft, Ho in Hq0. inversion Hq0 as [Ep]. rewrite <- Ep, Ej. exact Hsn. }
    split.
    { intros f p j Hq0 Hlp HPj.
      assert (Hfn: f <> nf) by (intros E; rewrite E, Hon in Hq0; discriminate).
      assert (Hd: f <> t \/ j <> i).
      { destruct (N.eq_dec f t) as [Eft|]; [|left; assumption]. right. intros Ej. rewrite Eft, Ej, HPres in HPj. discriminate. }
      rewrite (Qpres f p j); [apply (H3s f p j Hq0 Hd) | rewrite Hupo by exact Hfn; exact Hq0 | exact Hlp |].
      rewrite (H3s f p j Hq0 Hd). exact HPj. }
    intros Hlen Hnz. rewrite Hlen1 in Qen. change (orc s3) with r in Qen. rewrite Eo in Hlen, Hnz.
    replace (3 - length pre)%nat with (S (3 - S (length pre))) in Hnz by (clear -Hl; lia).
    apply Qen; [cbn [length] in Hlen; clear -Hlen; lia | inversion Hnz; assumption].
  Qed.

  (** a level above the last: descend, allocating and clearing the next table if it is missing *)
  Lemma map_level pre sh rest frame flags :
    (length pre <= 2)%nat ->
    entry_index va sh 9 = ix (length pre) ->
    level_bits (N.of_nat (length pre) + 1) = 9 ->
    (N.of_nat (length pre) =? last_level) = false ->
    (forall s own t, Pre (pre ++ [ix (length pre)]) s own t ->
       exists s' err own',
         map_walk rest (N.of_nat (length pre) + 1) (wwin (pre ++ [ix (length pre)])) va frame flags s = Ok (s', err) /\
         Post (pre ++ [ix (length pre)]) s own t s' err own') ->
    forall s own t, Pre pre s own t ->
    exists s' err own',
      map_walk ((sh, 9) :: rest) (N.of_nat (length pre)) (wwin pre) va frame flags s = Ok (s', err) /\
      Post pre s own t s' err own'.
  Proof.
    intros Hl Hidx Hbits Hlast IH s own t HP.
    destruct (pre_table pre s own t HP ltac:(lia)) as (Ho & Hb & Hlt & Hix & Hhd & Hsn).
    destruct (descend_step pre sh s own t Hl Hidx HP) as (Hres & Hnext & HPS & Hskip & Hdown).
    pose proof HP as (HI & Hf & Hp & H511).
    set (i := ix (length pre)) in *.
    cbn [map_walk]. rewrite Hres, Hlast. fold (ent s t i).
    rewrite has_huge_hw, HPS, has_present_hw. cbn iota.
    destruct (hw_P (ent s t i)) eqn:HPres; cbn [negb].
    - (* the next table exists *)
      destruct (IH s own _ (Hdown eq_refl)) as (s' & err & own' & Hrun & HQ).
      exists s', err, own'. rewrite Hnext. split; [exact Hrun|].
      exact (Post_present pre s own t s' err own' Hl HP HPres HQ).
    - (* the next table is missing: allocate *)
      unfold alloc. destruct (orc s) as [|nf r] eqn:Eo.
      { (* oracle exhausted *)
        exists s, E_ALLOC, own. split; [reflexivity|].
        apply Post_fail; try assumption; try reflexivity.
        - apply same_env_refl.
        - exists 0%nat. rewrite Eo. split; [reflexivity | lia].
        - rewrite Eo. cbn [length]. intros Hlen _. lia. }
      destruct (N.eqb_spec nf 0) as [Hx0|Hx0].
      { exists (set_orc s r), E_ALLOC, own. split; [reflexivity|].
        apply Post_fail; try reflexivity.
        - eapply Inv_pop; eassumption.
        - repeat split.
        - exists 1%nat. rewrite Eo. split; [reflexivity | lia].
        - rewrite Eo. intros _ Hnz. replace (3 - length pre)%nat with (S (2 - length pre)) in Hnz by lia.
          cbn [firstn] in Hnz. inversion Hnz as [|? ? Hx _]. congruence. }
      destruct (level_alloc pre s own t nf r Hl HP HPres Eo Hx0) as (_ & _ & _ & _ & _ & Hrp & _ & HP3).
      fold i in Hrp, HP3. rewrite Hbits, Hnext, Hrp.
      destruct (IH _ _ nf HP3) as (s' & err & own' & Hrun & HQ).
      exists s', err, own'. split; [exact Hrun|].
      exact (Post_alloc pre s own t nf r s' err own' Hl HP HPres Eo Hx0 HQ).
  Qed.
End Level.

(** * The whole walk *)
Lemma ix_val pg : ix pg 0 = hw_idx pg 0 /\ ix pg 1 = hw_idx pg 1 /\ ix pg 2 = hw_idx pg 2 /\ ix pg 3 = hw_idx pg 3.
Proof. repeat split; reflexivity. Qed.

Lemma map_walk_spec A T pg va frame flags s own :
  (forall k, k <= 3 -> hw_idx (N.shiftr va 12) k = hw_idx pg k) ->
  Inv s A T own -> hw_idx pg 0 <> 511 ->
  exists s' err own',
    map_walk go_levels 0 vmm_pdtVirtualAddr va frame flags s = Ok (s', err) /\
    Post A T pg va (set_flags (set_frame 0 frame) flags) [] s own T s' err own'.
Proof.
  intros Hva HI H511. set (leaf := set_flags (set_frame 0 frame) flags). rewrite <- wwin_nil.
  apply (four_levels pg va Hva (fun levels lvl _ pre => forall s0 own0 t0, Pre A T pg pre s0 own0 t0 ->
            exists s' err own', map_walk levels lvl (wwin pre) va frame flags s0 = Ok (s', err) /\
                                Post A T pg va leaf pre s0 own0 t0 s' err own')).
  - intros pre sh rest Hl Hidx Hbits Hlast IH. exact (map_level A T pg va leaf Hva pre sh rest frame flags Hl Hidx Hbits Hlast IH).
  - intros s0 own0 t0 HP0.
    destruct (map_leaf A T pg va leaf Hva [ix pg 0; ix pg 1; ix pg 2] s0 own0 t0 frame flags eq_refl HP0 eq_refl) as (s' & Hrun & HQ).
    exists s', 0, own0. split; assumption.
  - split; [exact HI|]. split; [reflexivity|]. split; [reflexivity | exact H511].
Qed.

Lemma frame_addr_idx page k : k <= 3 -> hw_idx (N.shiftr (frame_addr page) 12) k = hw_idx page k.
Proof. intros Hk. unfold frame_addr. rewrite page_shift_val. apply hw_idx_shl_page. exact Hk. Qed.

(** the reserved-zero-frame guard of Map *)
Definition zero_guard (s : st) (frame flags : N) : bool :=
  prot s && (frame =? zf s) && negb (N.land flags vmm_FlagRW =? 0).

Lemma same_env_guard s s' frame flags : same_env s s' -> zero_guard s' frame flags = zero_guard s frame flags.
Proof. intros H. unfold zero_guard. rewrite (same_env_prot s s' H), (same_env_zf s s' H). reflexivity. Qed.

Lemma map_page_guarded page frame flags s :
  zero_guard s frame flags = true -> map_page page frame flags s = Ok (s, E_ZERO_RW).
Proof. unfold map_page, zero_guard. intros ->. reflexivity. Qed.

Lemma map_page_spec A T page frame flags s own :
  Inv s A T own -> hw_idx page 0 <> 511 -> zero_guard s frame flags = false ->
  exists s' err own',
    map_page page frame flags s = Ok (s', err) /\
    Post A T page (frame_addr page) (set_flags (set_frame 0 frame) flags) [] s own T s' err own'.
Proof.
  intros HI H511 Hg. unfold map_page. unfold zero_guard in Hg. rewrite Hg.
  apply map_walk_spec; try assumption. apply frame_addr_idx.
Qed.
