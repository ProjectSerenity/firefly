(** C06 [cow_ok]: what a copy-on-write fault does. *)
From Coq Require Import NArith ZArith Lia List Bool.
From Coq Require Import ZifyBool ZifyN ZifyNat.
From FF Require Import Lib.Word Gen.Consts_mm_vmm Vmm.Region Vmm.Pt Vmm.PtMem Vmm.PtArith Vmm.PtTree Vmm.PtMap Vmm.PtOps Vmm.PtTheorems Vmm.PtPdt Vmm.PtFault.
Import ListNotations.
Local Open Scope N_scope.

Lemma frame_addr_aligned page : N.land (frame_addr page) 4095 = 0.
Proof.
  unfold frame_addr, shl64, w64. rewrite page_shift_val, N.shiftl_mul_pow2.
  change 4095 with (N.ones 12). rewrite N.land_ones.
  change two64 with (2 ^ 52 * 2 ^ 12). rewrite N.mul_mod_distr_r by discriminate. apply N.mod_mul. discriminate.
Qed.

Lemma resolve_page_mmu s page : resolve_page s (frame_addr page) = mmu s (frame_addr page).
Proof. unfold resolve_page. rewrite frame_addr_aligned. reflexivity. Qed.

Lemma temp_idx0 : hw_idx temp_page 0 <> 511.
Proof. vm_compute. discriminate. Qed.

Lemma aspace_of_follow s A own page l :
  WF s A own -> follow s A (firstn 3 (ixs page)) = Some l -> hw_idx page 0 <> 511 ->
  aspace s A page = Some (ent s l (hw_idx page 3)) /\ own l = Some (firstn 3 (ixs page)).
Proof.
  intros W Hf H511.
  assert (Ho: own l = Some (firstn 3 (ixs page))).
  { eapply leaf_table_own; eassumption. }
  split; [|exact Ho]. rewrite aspace_follow, Hf. destruct (wf_owned _ _ _ W l _ Ho) as (Hb & _). rewrite Hb. reflexivity.
Qed.

(** the entry the handler leaves *)
Definition cow_entry (e cp : N) : N := set_frame (set_flags (clear_flags e vmm_FlagCopyOnWrite) P_RW) cp.

Lemma cow_entry_bits e cp :
  cp < 2 ^ 40 ->
  hw_frame (cow_entry e cp) = cp /\ hw_P (cow_entry e cp) = true /\
  has_flags (cow_entry e cp) vmm_FlagRW = true /\ has_flags (cow_entry e cp) vmm_FlagCopyOnWrite = false /\
  (forall n, n <> 0 -> n <> 1 -> n <> 9 -> (n < 12 \/ 52 <= n) -> N.testbit (cow_entry e cp) n = N.testbit e n).
Proof.
  intros Hcp. unfold cow_entry.
  split; [apply set_frame_frame; exact Hcp|].
  assert (Hlow: forall n, n < 12 -> N.testbit (set_frame (set_flags (clear_flags e vmm_FlagCopyOnWrite) P_RW) cp) n =
                                     N.testbit (N.lor (N.ldiff e 512) 3) n).
  { intros n Hn. rewrite set_frame_bit_low by exact Hn. reflexivity. }
  split; [unfold hw_P; rewrite Hlow by lia; rewrite N.lor_spec; cbn; apply orb_true_r|].
  split.
  { unfold has_flags. rewrite flag_rw_val. apply N.eqb_eq. apply N.bits_inj. intros n. rewrite N.land_spec.
    destruct (N.eq_dec n 1) as [->|Hn].
    - rewrite Hlow by lia. rewrite N.lor_spec. cbn. rewrite orb_true_r. reflexivity.
    - change 2 with (2 ^ 1). rewrite N.pow2_bits_false by congruence. apply andb_false_r. }
  split.
  { unfold has_flags. apply N.eqb_neq. intros E. apply (f_equal (fun x => N.testbit x 9)) in E.
    rewrite N.land_spec, Hlow in E by lia. rewrite N.lor_spec, N.ldiff_spec in E. cbn in E.
    rewrite andb_false_r in E. cbn in E. discriminate. }
  intros n H0 H1 H9 Hr.
  destruct Hr as [Hr|Hr].
  - rewrite Hlow by exact Hr. rewrite N.lor_spec, N.ldiff_spec.
    change 512 with (2 ^ 9). rewrite N.pow2_bits_false by congruence.
    replace (N.testbit 3 n) with false; [cbn; rewrite andb_true_r; apply orb_false_r|].
    symmetry. change 3 with (N.ones 2). apply N.ones_spec_high. lia.
  - unfold set_frame, andnot. rewrite N.lor_spec, N.ldiff_spec, mask_bit.
    replace (n <? 52) with false by (symmetry; apply N.ltb_ge; exact Hr). rewrite andb_false_r. cbn [negb]. rewrite andb_true_r.
    assert (Hfa: N.testbit (frame_addr cp) n = false).
    { rewrite frame_addr_small by (change (2 ^ 40) with 1099511627776 in Hcp; change (2 ^ 52) with 4503599627370496; lia).
      rewrite N.shiftl_spec_high' by lia. apply (testbit_above cp 40 _ Hcp). lia. }
    rewrite Hfa, orb_false_r. unfold set_flags, clear_flags, andnot. rewrite N.lor_spec, N.ldiff_spec.
    rewrite P_RW_val. change vmm_FlagCopyOnWrite with (2 ^ 9). rewrite N.pow2_bits_false by lia.
    replace (N.testbit 3 n) with false; [cbn; rewrite andb_true_r; apply orb_false_r|].
    symmetry. change 3 with (N.ones 2). apply N.ones_spec_high. lia.
Qed.

Theorem cow_ok s A own addr e s1 cp s2 pg :
  Inv s A A own ->
  let page := page_from_addr addr in
  hw_idx page 0 <> 511 -> ~ same_page page temp_page ->
  cow_pre s A page = Some e ->
  (* the page shows a data frame: simulated RAM that is neither a page table nor about to be allocated *)
  backed s (hw_frame e) = true -> own (hw_frame e) = None -> ~ In (hw_frame e) (orc s) ->
  alloc s = (s1, Some cp) -> map_temporary cp s1 = Ok (s2, 0, pg) ->
  exists s5 own',
    page_fault addr s = Ok (s5, 0) /\ Inv s5 A A own' /\ same_env s s5 /\
    (* the page now maps the fresh frame writable, CoW cleared, other flag bits as before *)
    aspace s5 A page = Some (cow_entry e cp) /\
    (* whose contents are what the page showed *)
    (forall i, ent s5 cp i = ent s (hw_frame e) i) /\
    (* every other page translates as before, the temporary page is unmapped again *)
    (forall q, hw_idx q 0 <> 511 -> ~ same_page q page -> ~ same_page q temp_page -> translation s5 A q = translation s A q) /\
    translation s5 A temp_page = None /\
    (* frames that are not page tables -- the shared frame, the zero frame, every other data frame -- are untouched *)
    (forall f i, own' f = None -> f <> cp -> ent s5 f i = ent s f i) /\ own' cp = None /\
    flog s5 = frame_addr page :: vmm_tempMappingAddr :: vmm_tempMappingAddr :: flog s /\
    (exists n, orc s5 = skipn n (orc s)) /\
    (forall f, own' f = own f \/ (own f = None /\ In f (orc s) /\ f <> 0)).
Proof.
  intros HI page H511 Hnt Hpre Hbsrc Hosrc Hnsrc Hal Hmt.
  pose proof (inv_wf _ _ _ _ HI) as W.
  (* 0. the precondition *)
  unfold cow_pre in Hpre.
  destruct (aspace s A page) as [e'|] eqn:Ea; [|discriminate].
  destruct (hw_P e') eqn:HP; cbn [andb] in Hpre; [|discriminate].
  destruct (negb (has_flags e' vmm_FlagRW) && has_flags e' vmm_FlagCopyOnWrite) eqn:Hc; [|discriminate].
  injection Hpre as Ee. subst e'.
  destruct (mmu_aspace s A A own page e HI eq_refl H511 Ea HP Hbsrc) as (_ & l & Hfl & Hel & Hol).
  set (i3 := hw_idx page 3) in *. set (p3 := firstn 3 (ixs page)) in *.
  (* 1. the walk *)
  assert (Hw: fault_walk go_levels 0 vmm_pdtVirtualAddr (frame_addr page) s None = Ok (Some (l, i3))).
  { rewrite (fault_walk_spec A A page (frame_addr page) (frame_addr_idx page) s own HI H511).
    rewrite (dloc_aspace s A own page HI H511), Ea, HP. fold p3. rewrite Hfl. reflexivity. }
  (* 2. the allocation *)
  unfold alloc in Hal. destruct (orc s) as [|x r] eqn:Eo; [discriminate|].
  destruct (N.eqb_spec x 0) as [|Hx0]; cbn iota in Hal; [inversion Hal|]. injection Hal as Es1 Ecp. subst x.
  assert (HI1: Inv s1 A A own) by (rewrite <- Es1; eapply Inv_pop; eassumption).
  assert (He1: forall f i, ent s1 f i = ent s f i) by (intros; rewrite <- Es1; reflexivity).
  destruct (inv_fresh _ _ _ _ HI) as [F1 F2].
  destruct (F2 cp) as (Hbcp & Hocp & HcpA); [rewrite Eo; left; reflexivity | exact Hx0 |].
  assert (Hcp40: cp < 2 ^ 40) by (eapply backed_lt40; [exact (wf_arena _ _ _ W) | exact Hbcp]).
  assert (Hcpr: ~ In cp r).
  { rewrite Eo in F1. eapply ofr_head_fresh; eassumption. }
  assert (Horc1: orc s1 = r) by (rewrite <- Es1; reflexivity).
  (* 3. the temporary mapping *)
  unfold map_temporary in Hmt.
  destruct (prot s1 && (cp =? zf s1)) eqn:Hg; [discriminate|].
  destruct (map_page temp_page cp P_RW s1) as [[s2' err]|] eqn:Hmp; [|discriminate].
  destruct (N.eqb_spec err 0) as [->|Hne]; [|exfalso; injection Hmt; intros; congruence]. injection Hmt as E2 Epg. subst s2' pg.
  assert (Hzg: zero_guard s1 cp P_RW = false).
  { unfold zero_guard. rewrite Hg. reflexivity. }
  destruct (map_ok s1 A A own temp_page cp P_RW HI1 temp_idx0 Hzg) as
      (s2' & err' & own2 & Hr & HI2 & Henv2 & _ & Hok & _ & Hfr2 & _ & (n2 & Hn2 & Hown2) & Qoff & Qpres & _).
  rewrite Hmp in Hr. injection Hr as E2 Ee'. subst s2' err'.
  destruct (Hok eq_refl) as (Hat2 & Htr2 & Hfl2).
  pose proof (inv_wf _ _ _ _ HI2) as W2.
  assert (Hbk2: forall f, backed s2 f = backed s f).
  { intros f. rewrite (same_env_backed s1 s2 f Henv2). rewrite <- Es1. reflexivity. }
  assert (Hown2_none: forall f, own f = None -> ~ In f r -> own2 f = None).
  { intros f Hf Hnin. destruct (Hown2 f) as [E | (_ & Hin & _)]; [rewrite E; exact Hf|].
    exfalso. apply Hnin. rewrite Horc1 in Hin. eapply in_firstn; exact Hin. }
  assert (Ho2cp: own2 cp = None) by (apply Hown2_none; assumption).
  assert (Ho2src: own2 (hw_frame e) = None).
  { apply Hown2_none; [exact Hosrc|]. intros Hin. apply Hnsrc. right. exact Hin. }
  assert (Hext2: forall f p, own f = Some p -> own2 f = Some p).
  { intros f p Hp. destruct (Hown2 f) as [E | (E & _)]; [rewrite E; exact Hp | rewrite Hp in E; discriminate]. }
  (* 4. the faulting page's leaf entry is where it was *)
  assert (Hlt3: Forall (fun x => x < 512) p3) by (apply firstn3_lt).
  assert (Hhd3: hd 0 ([] ++ p3) <> 511) by exact H511.
  assert (Hfl2': follow s2 A p3 = Some l).
  { destruct Henv2 as (E1 & E2 & _).
    apply (follow_mono s1 s2 A own A [] p3 l (inv_wf _ _ _ _ HI1) (wf_root _ _ _ W) E1 E2); try assumption.
    - cbn. lia.
    - rewrite <- Es1. exact Hfl. }
  assert (Hel2: ent s2 l i3 = e).
  { rewrite (Qoff l p3 i3 Hol), He1; [exact Hel|].
    unfold p3, i3. rewrite <- ixs_split. intros E. apply Hnt. exact E. }
  assert (Ea2: aspace s2 A page = Some e).
  { destruct (aspace_of_follow s2 A own2 page l W2 Hfl2' H511) as [E _]. rewrite E. fold i3. rewrite Hel2. reflexivity. }
  (* 5. the copy *)
  assert (Hsrc: resolve_page s2 (frame_addr page) = Some (hw_frame e)).
  { rewrite resolve_page_mmu.
    destruct (mmu_aspace s2 A A own2 page e HI2 eq_refl H511 Ea2 HP) as [M _]; [rewrite Hbk2; exact Hbsrc | exact M]. }
  set (tleaf := set_flags (set_frame 0 cp) P_RW) in *.
  destruct (link_entry cp Hcp40) as (LP & LPS & LF). fold tleaf in LP, LPS, LF.
  assert (Hdst: resolve_page s2 (frame_addr temp_page) = Some cp).
  { rewrite resolve_page_mmu.
    destruct (mmu_aspace s2 A A own2 temp_page tleaf HI2 eq_refl temp_idx0 Hat2 LP) as [M _]; [rewrite LF, Hbk2; exact Hbcp|].
    rewrite LF in M. exact M. }
  set (s3 := set_mem s2 (cpy (mem s2) (hw_frame e) cp)).
  assert (He3: forall f i, ent s3 f i = if f =? cp then ent s2 (hw_frame e) i else ent s2 f i).
  { intros. unfold s3, ent. cbn [mem set_mem]. apply rd_cpy. }
  assert (Hn3: forall f, f <> cp -> forall i, ent s3 f i = ent s2 f i).
  { intros f Hf i. rewrite He3. destruct (N.eqb_spec f cp); [congruence|reflexivity]. }
  assert (HI3: Inv s3 A A own2).
  { apply (Inv_ent_eq s2 s3 A A own2 HI2); try reflexivity.
    intros f i [-> | [-> | (p & Hop & _)]]; apply Hn3; congruence. }
  pose proof (inv_wf _ _ _ _ HI3) as W3.
  (* 6. unmapping the temporary page *)
  destruct (unmap_ok s3 A A own2 temp_page HI3 temp_idx0) as (s4 & err4 & Hr4 & Herr4 & HI4 & Henv4 & Horc4 & Hinv4 & Hok4).
  assert (Hat3: aspace s3 A temp_page = Some tleaf).
  { rewrite <- Hat2. apply (aspace_ent_eq s2 s3 A own2 temp_page W2); try reflexivity; [|exact temp_idx0].
    intros f p i Hp. apply Hn3. intros E. rewrite E, Ho2cp in Hp. discriminate. }
  assert (E4: err4 = 0).
  { destruct Herr4 as [E|E]; [exact E|]. destruct (Hinv4 E) as [_ Hnone]. rewrite Hat3 in Hnone. discriminate. }
  subst err4. destruct (Hok4 eq_refl) as (et & Hat3' & Hat4 & Htr4 & Hoth4 & Hfl4 & Hfr4 & Uoff).
  pose proof (inv_wf _ _ _ _ HI4) as W4.
  (* 7. the faulting page's leaf entry is still where it was *)
  assert (Hlen3: (length (@nil N) + length p3 <= 3)%nat) by (cbn; lia).
  assert (Hfl3': follow s3 A p3 = Some l).
  { apply (follow_mono s2 s3 A own2 A [] p3 l W2 (wf_root _ _ _ W2) eq_refl eq_refl); try assumption.
    intros f q i Hq _ _. apply Hn3. intros E. rewrite E, Ho2cp in Hq. discriminate. }
  assert (Hfl4': follow s4 A p3 = Some l).
  { destruct Henv4 as (E1 & E2 & _).
    apply (follow_mono s3 s4 A own2 A [] p3 l W3 (wf_root _ _ _ W3) E1 E2); try assumption.
    intros f q i Hq Hlq _. apply (Uoff f q i Hq). intros E. apply (f_equal (@length N)) in E.
    rewrite app_length, ixs_length in E. cbn [length] in E. lia. }
  assert (Hlcp: l <> cp) by (intros E; rewrite E, Hocp in Hol; discriminate).
  assert (Hel4: ent s4 l i3 = e).
  { rewrite (Uoff l p3 i3 (Hext2 l p3 Hol)).
    - rewrite Hn3 by exact Hlcp. exact Hel2.
    - unfold p3, i3. rewrite <- ixs_split. intros E. apply Hnt. exact E. }
  (* 8. retargeting the entry *)
  destruct (leaf_write s4 A A own2 l p3 i3 (cow_entry e cp) (frame_addr page) HI4 Hfl4' eq_refl Hlt3 H511)
    as (L1 & L2 & L3 & L4 & L5 & L6 & L7 & L8 & L9).
  set (s5 := flush (wr_st s4 l i3 (cow_entry e cp)) (frame_addr page)) in *.
  assert (Hrun: page_fault addr s = Ok (s5, 0)).
  { unfold page_fault. fold page. rewrite Hw. rewrite <- Hel in Hc. unfold ent in Hc. rewrite Hc.
    unfold alloc. rewrite Eo. destruct (N.eqb_spec cp 0); [congruence|]. rewrite Es1.
    unfold map_temporary. rewrite Hg, Hmp. cbn [N.eqb negb].
    rewrite Hsrc, Hdst. fold s3. rewrite Hr4.
    fold (ent s4 l i3). rewrite Hel4. reflexivity. }
  exists s5, own2. split; [exact Hrun|]. split; [exact L1|].
  split.
  { eapply same_env_trans; [|exact L2]. eapply same_env_trans; [|exact Henv4].
    eapply same_env_trans; [|eapply same_env_trans; [exact Henv2|]]; [rewrite <- Es1 | unfold s3]; repeat split. }
  split; [unfold aspace; rewrite ixs_split; exact L8|].
  split.
  { intros i. rewrite L5 by (left; congruence). rewrite Hfr4 by exact Ho2cp.
    rewrite He3, N.eqb_refl. rewrite Hfr2 by exact Ho2src. apply He1. }
  split.
  { intros q Hq Hnp Hntq.
    assert (E54: aspace s5 A q = aspace s4 A q).
    { unfold aspace. rewrite (ixs_split q). apply L9; try reflexivity; [apply firstn3_lt | exact Hq |].
      rewrite <- !ixs_split. exact Hnp. }
    assert (E43: aspace s4 A q = aspace s3 A q) by (apply Hoth4; assumption).
    assert (E32: aspace s3 A q = aspace s2 A q).
    { apply (aspace_ent_eq s2 s3 A own2 q W2); try reflexivity; [|exact Hq].
      intros f p i Hp. apply Hn3. intros E. rewrite E, Ho2cp in Hp. discriminate. }
    unfold translation. rewrite E54, E43, E32. fold (translation s2 A q). rewrite (Htr2 q Hq Hntq).
    unfold translation, aspace. rewrite (look_ext s s1) by (try (rewrite <- Es1; reflexivity); exact He1). reflexivity. }
  split.
  { assert (E54: aspace s5 A temp_page = aspace s4 A temp_page).
    { unfold aspace. rewrite (ixs_split temp_page). apply L9; try reflexivity; [apply firstn3_lt | exact temp_idx0 |].
      rewrite <- !ixs_split. intros E. apply Hnt. symmetry. exact E. }
    unfold translation. rewrite E54. exact Htr4. }
  split.
  { intros f i Hf Hfc.
    assert (Hfl': f <> l) by (intros E; rewrite E, L7 in Hf; discriminate).
    rewrite L5 by (left; exact Hfl'). rewrite Hfr4 by exact Hf. rewrite Hn3 by exact Hfc. rewrite Hfr2 by exact Hf. apply He1. }
  split; [exact Ho2cp|].
  split.
  { rewrite L4, Hfl4. change (flog s3) with (flog s2). rewrite Hfl2. rewrite <- Es1. reflexivity. }
  split.
  { exists (S n2). rewrite L3, Horc4. change (orc s3) with (orc s2). rewrite Hn2, Horc1. reflexivity. }
  intros f. destruct (Hown2 f) as [E | (E1 & E2 & E3)]; [left; exact E | right].
  split; [exact E1|]. split; [|exact E3]. right. rewrite Horc1 in E2. eapply in_firstn; exact E2.
Qed.
