(** C06: the reserved zero frame's guard, the page-fault handler. *)
From Coq Require Import NArith ZArith Lia List Bool.
From Coq Require Import ZifyBool ZifyN ZifyNat.
From FF Require Import Lib.Word Gen.Consts_mm_vmm Vmm.Region Vmm.Pt Vmm.PtMem Vmm.PtArith Vmm.PtTree Vmm.PtMap Vmm.PtOps Vmm.PtTheorems Vmm.PtPdt.
Import ListNotations.
Local Open Scope N_scope.

Definition wants_rw (flags : N) : bool := negb (N.land flags vmm_FlagRW =? 0).

Theorem zero_frame_guard_map s page flags :
  prot s = true -> wants_rw flags = true -> map_page page (zf s) flags s = Ok (s, E_ZERO_RW).
Proof.
  intros Hp Hf. apply map_page_guarded. unfold zero_guard. unfold wants_rw in Hf. rewrite Hp, N.eqb_refl, Hf. reflexivity.
Qed.

(** PageDirectoryTable.Map on an inactive table patches and restores slot 511 around the refused Map: no entry of
    any frame changes *)
Theorem zero_frame_guard_pdt_inactive s A T ownA own slot page flags :
  prot s = true -> wants_rw flags = true -> Inv2 s A T ownA own -> pdts s slot = T ->
  exists s3, pdt_map slot page (zf s) flags s = Ok (s3, E_ZERO_RW) /\ Inv2 s3 A T ownA own /\
             (forall q, hw_idx q 0 <> 511 -> aspace s3 A q = aspace s A q /\ aspace s3 T q = aspace s T q) /\
             same_env s s3 /\ orc s3 = orc s.
Proof.
  intros Hp Hf HI2 Hslot.
  set (Q := fun (s1 s2 : st) (err : N) (own' : ownmap) => s2 = s1 /\ err = E_ZERO_RW /\ own' = own).
  destruct (with_pdt_inactive s A T ownA own slot (map_page page (zf s) flags) Q HI2 Hslot) as
      (s1 & s2 & s3 & err & own' & Hrun & HQ & Es1 & HT & Es3 & HtreeA & HaspA & HtreeT & HaspT & Hasp1 & Hfl3 & Hfl1 & HI3).
  { intros s1 HI1 Henv Horc.
    assert (Hz: zf s1 = zf s /\ prot s1 = prot s) by (split; [apply same_env_zf | apply same_env_prot]; exact Henv).
    destruct Hz as [Ez Ep].
    exists s1, E_ZERO_RW, own. split.
    - split; [|split; [exact HI1|]; split; [apply same_env_refl|]; split; [reflexivity|]; exists 0%nat; split; [reflexivity | intros; left; reflexivity]].
      rewrite <- Ez. apply zero_frame_guard_map; [rewrite Ep; exact Hp | exact Hf].
    - repeat split. }
  destruct HQ as (E2 & Ee & Eo). subst s2 err own'.
  exists s3. split; [exact Hrun|]. split; [exact HI3|].
  split.
  { intros q Hq. split; [apply HaspA; exact Hq|]. rewrite HaspT, Hasp1 by exact Hq. reflexivity. }
  split; [rewrite Es3, Es1; repeat split | rewrite Es3, Es1; reflexivity].
Qed.

(** MapRegion / IdentityMapRegion whose first frame is the zero frame are refused at the first page *)
Lemma iter_n_first_fail {S T : Type} (f : S -> S + T) n s r : n <> 0 -> f s = inr r -> iter_n f n s = inr r.
Proof.
  intros Hn Hf. destruct n as [|p]; [congruence|]. cbn [iter_n]. clear Hn.
  revert s Hf. induction p as [p IH|p IH|]; intros s Hf; cbn [iter_pos].
  - rewrite Hf. reflexivity.
  - rewrite (IH s Hf). reflexivity.
  - exact Hf.
Qed.

Theorem zero_frame_guard_identity_region s size flags :
  prot s = true -> wants_rw flags = true -> 0 < size -> size + 4095 < two64 -> zf s + (size + 4095) / 4096 < two64 ->
  identity_map_region (zf s) size flags s = Ok (s, E_ZERO_RW, 0).
Proof.
  intros Hp Hf Hs Hsz Hfz. unfold identity_map_region.
  assert (Hr: round_up size = (size + 4095) / 4096 * 4096).
  { unfold round_up, PageSize. change (mm_PageSize - 1) with (2 ^ 12 - 1). rewrite andnot_pow2.
    rewrite w64_small by exact Hsz. change (2 ^ 12) with 4096. lia. }
  rewrite Hr. destruct (N.ltb_spec ((size + 4095) / 4096 * 4096) size) as [H|H]; [lia|].
  rewrite page_shift_val, N.shiftr_div_pow2. change (2 ^ 12) with 4096. rewrite N.div_mul by discriminate.
  rewrite w64_small by exact Hfz.
  destruct (N.ltb_spec (zf s) (zf s + (size + 4095) / 4096)) as [H2|H2]; [|lia].
  rewrite (iter_n_first_fail _ _ _ (Some (s, E_ZERO_RW))); [reflexivity | lia |].
  unfold map_step. rewrite zero_frame_guard_map by assumption. reflexivity.
Qed.

(** the copy-on-write precondition on the faulting page *)
Definition cow_pre (s : st) (A page : N) : option N :=
  match aspace s A page with
  | Some e => if hw_P e && negb (has_flags e vmm_FlagRW) && has_flags e vmm_FlagCopyOnWrite then Some e else None
  | None => None
  end.

Lemma dloc_aspace s A own page :
  Inv s A A own -> hw_idx page 0 <> 511 ->
  dloc s A (ixs page) = match aspace s A page with
                        | Some e => if hw_P e then
                                      match follow s A (firstn 3 (ixs page)) with
                                      | Some l => Some (l, hw_idx page 3) | None => None end
                                    else None
                        | None => None
                        end.
Proof.
  intros HI H511. rewrite (dloc_top s A A own page HI H511), aspace_follow.
  pose proof (inv_wf _ _ _ _ HI) as W.
  destruct (follow s A (firstn 3 (ixs page))) as [l|] eqn:Ef; [|reflexivity].
  assert (Ho: own l = Some (firstn 3 (ixs page))).
  { eapply leaf_table_own; eassumption. }
  destruct (wf_owned _ _ _ W l _ Ho) as (Hb & _). rewrite Hb. reflexivity.
Qed.

Lemma page_from_addr_lt a : a < two64 -> page_from_addr a < 2 ^ 52.
Proof.
  intros Ha. unfold page_from_addr. change (mm_PageSize - 1) with (2 ^ 12 - 1). rewrite andnot_pow2, page_shift_val, N.shiftr_div_pow2.
  change (2 ^ 12) with 4096. change (2 ^ 52) with 4503599627370496. unfold two64 in Ha. lia.
Qed.

(** Every page fault that is not a write to a present, read-only, copy-on-write page panics with
    errUnrecoverableFault and changes nothing; if the frame for the copy cannot be allocated, or the
    temporary mapping fails, it panics with that error.  The handler returns (outcome 0) in no other case. *)
Theorem fault_else_panics s A own addr :
  Inv s A A own -> hw_idx (page_from_addr addr) 0 <> 511 ->
  let page := page_from_addr addr in
  (cow_pre s A page = None -> page_fault addr s = Ok (s, PANIC + E_FAULT)) /\
  (forall e, cow_pre s A page = Some e ->
     (forall s1, alloc s = (s1, None) -> page_fault addr s = Ok (s1, PANIC + E_ALLOC)) /\
     (forall s1 cp s2 err pg, alloc s = (s1, Some cp) -> map_temporary cp s1 = Ok (s2, err, pg) -> err <> 0 ->
                              page_fault addr s = Ok (s2, PANIC + err))).
Proof.
  intros HI H511 page.
  assert (Hw: fault_walk go_levels 0 vmm_pdtVirtualAddr (frame_addr page) s None = Ok (dloc s A (ixs page))).
  { apply (fault_walk_spec A A page (frame_addr page) (frame_addr_idx page) s own HI H511). }
  rewrite (dloc_aspace s A own page HI H511) in Hw.
  unfold cow_pre.
  pose proof (inv_wf _ _ _ _ HI) as W.
  split.
  - intros Hpre. unfold page_fault. fold page. rewrite Hw.
    destruct (aspace s A page) as [e|] eqn:Ea; [|reflexivity].
    destruct (hw_P e) eqn:HP; [|reflexivity]. cbn [andb] in Hpre.
    rewrite aspace_follow in Ea.
    destruct (follow s A (firstn 3 (ixs page))) as [l|] eqn:Ef; [|discriminate].
    destruct (backed s l); [|discriminate]. injection Ea as Ee. unfold ent in Ee. rewrite Ee.
    destruct (negb (has_flags e vmm_FlagRW) && has_flags e vmm_FlagCopyOnWrite); [discriminate|reflexivity].
  - intros e Hpre.
    destruct (aspace s A page) as [e'|] eqn:Ea; [|discriminate].
    destruct (hw_P e') eqn:HP; cbn [andb] in Hpre; [|discriminate].
    destruct (negb (has_flags e' vmm_FlagRW) && has_flags e' vmm_FlagCopyOnWrite) eqn:Hc; [|discriminate].
    rewrite aspace_follow in Ea.
    destruct (follow s A (firstn 3 (ixs page))) as [l|] eqn:Ef; [|discriminate].
    destruct (backed s l); [|discriminate]. injection Ea as Ee.
    split.
    + intros s1 Hal. unfold page_fault. fold page. rewrite Hw. unfold ent in Ee. rewrite Ee, Hc, Hal. reflexivity.
    + intros s1 cp s2 err pg Hal Hmt Herr. unfold page_fault. fold page. rewrite Hw. unfold ent in Ee. rewrite Ee, Hc, Hal, Hmt.
      destruct (N.eqb_spec err 0); [congruence|]. reflexivity.
Qed.

(** the handler resumes only from a copy-on-write fault whose copy frame and temporary mapping succeeded *)
Theorem fault_resume_only_cow s A own addr s' :
  Inv s A A own -> hw_idx (page_from_addr addr) 0 <> 511 ->
  page_fault addr s = Ok (s', 0) ->
  exists e s1 cp s2 pg, cow_pre s A (page_from_addr addr) = Some e /\ alloc s = (s1, Some cp) /\ map_temporary cp s1 = Ok (s2, 0, pg).
Proof.
  intros HI H511 Hrun.
  destruct (fault_else_panics s A own addr HI H511) as [Hno Hyes].
  destruct (cow_pre s A (page_from_addr addr)) as [e|] eqn:Hpre.
  - destruct (Hyes e eq_refl) as [Ha Hm].
    destruct (alloc s) as [s1 [cp|]] eqn:Hal.
    + destruct (map_temporary cp s1) as [[[s2 err] pg]|] eqn:Hmt.
      * destruct (N.eq_dec err 0) as [->|Hne].
        -- exists e, s1, cp, s2, pg. split; [reflexivity|]. split; [reflexivity | exact Hmt].
        -- rewrite (Hm s1 cp s2 err pg eq_refl Hmt Hne) in Hrun.
           assert (E2: PANIC + err = 0) by congruence. unfold PANIC in E2. lia.
      * unfold page_fault in Hrun.
        destruct (fault_walk go_levels 0 vmm_pdtVirtualAddr (frame_addr (page_from_addr addr)) s None) as [[[f i]|]|]; try discriminate.
        destruct (negb (has_flags (rd (mem s) f i) vmm_FlagRW) && has_flags (rd (mem s) f i) vmm_FlagCopyOnWrite); [|discriminate].
        rewrite Hal, Hmt in Hrun. discriminate.
    + rewrite (Ha s1 eq_refl) in Hrun. assert (E2: PANIC + E_ALLOC = 0) by congruence. discriminate E2.
  - rewrite (Hno eq_refl) in Hrun. assert (E2: PANIC + E_FAULT = 0) by congruence. discriminate E2.
Qed.

Theorem gpf_panics s addr : step (OGpf addr) s = Ok (s, PANIC + E_FAULT, 0).
Proof. reflexivity. Qed.
