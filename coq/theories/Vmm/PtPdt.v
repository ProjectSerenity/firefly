(** C04, the claim DESIGN.md calls pdt_inactive_frame ([pdt_map_inactive], [pdt_unmap_inactive]):
    PageDirectoryTable.Map / Unmap on a table that is not active. *)
From Coq Require Import NArith ZArith Lia List Bool.
From Coq Require Import ZifyBool ZifyN ZifyNat.
From FF Require Import Lib.Word Gen.Consts_mm_vmm Vmm.Region Vmm.Pt Vmm.PtMem Vmm.PtArith Vmm.PtTree Vmm.PtMap Vmm.PtOps Vmm.PtTheorems.
Import ListNotations.
Local Open Scope N_scope.

(** [WF] only depends on the entries of the owned tables *)
Lemma WF_ent_eq s s' T own :
  WF s T own -> lo s' = lo s -> cnt s' = cnt s ->
  (forall f p i, own f = Some p -> ent s' f i = ent s f i) -> WF s' T own.
Proof.
  intros [W1 W2 W3 W4 W5] Hlo Hcnt He.
  pose proof (backed_eq s s' Hlo Hcnt) as Hbk.
  split.
  - rewrite Hlo, Hcnt. exact W1.
  - exact W2.
  - intros t p Ho. rewrite Hbk. exact (W3 t p Ho).
  - rewrite (He T [] 511 W2). exact W4.
  - intros t p i Ho Hl Hi Hne. rewrite (He t p i Ho). exact (W5 t p i Ho Hl Hi Hne).
Qed.

Lemma aspace_ent_eq s s' T own q :
  WF s T own -> lo s' = lo s -> cnt s' = cnt s ->
  (forall f p i, own f = Some p -> ent s' f i = ent s f i) -> hw_idx q 0 <> 511 ->
  aspace s' T q = aspace s T q.
Proof.
  intros W Hlo Hcnt He H511. unfold aspace.
  eapply (look_frame s s' T own T []); try eassumption.
  - exact (wf_root _ _ _ W).
  - intros f p i Hp _ _. exact (He f p i Hp).
  - apply ixs_lt.
  - cbn. lia.
Qed.

(** two address spaces: [A] active with tree [ownA], [T] not active with tree [own] *)
Record Inv2 (s : st) (A T : N) (ownA own : ownmap) : Prop := {
  i2_wfA : WF s A ownA;
  i2_wfT : WF s T own;
  i2_cr3 : N.shiftr (cr3 s) 12 = A;
  i2_disj : forall f, ownA f <> None -> own f = None;
  i2_fresh : Fresh s own A;
  i2_freshA : forall f, In f (orc s) -> f <> 0 -> ownA f = None
}.

(** the contract of an operation on [T]'s tree through the recursive window *)
Definition TOp (op : st -> R (st * N)) (A T : N) (own : ownmap) (s s' : st) (err : N) (own' : ownmap) : Prop :=
  op s = Ok (s', err) /\ Inv s' A T own' /\ same_env s s' /\
  (forall f i, own' f = None -> ent s' f i = ent s f i) /\
  (exists n, orc s' = skipn n (orc s) /\
             forall f, own' f = own f \/ (own f = None /\ In f (firstn n (orc s)) /\ f <> 0)).

Definition lea_of (A : N) : N := add64 (frame_addr A) last_entry_off.

Lemma phys_lea s A : A < 2 ^ 40 -> backed s A = true -> phys s (lea_of A) = Some (A, 511).
Proof.
  intros HA Hb. unfold lea_of, phys.
  rewrite frame_addr_small by (change (2 ^ 40) with 1099511627776 in HA; change (2 ^ 52) with 4503599627370496; lia).
  rewrite last_entry_off_val, N.shiftl_mul_pow2. change (2 ^ 12) with 4096.
  unfold add64. rewrite w64_small by (unfold two64; change (2 ^ 40) with 1099511627776 in HA; lia).
  assert (E1: N.land (A * 4096 + 4088) 7 = 0).
  { change 7 with (N.ones 3). rewrite N.land_ones. change (2 ^ 3) with 8. lia. }
  assert (E2: N.shiftr (A * 4096 + 4088) 12 = A).
  { rewrite N.shiftr_div_pow2. change (2 ^ 12) with 4096. lia. }
  assert (E3: N.shiftr (N.land (A * 4096 + 4088) 4095) 3 = 511).
  { change 4095 with (N.ones 12). rewrite N.land_ones, N.shiftr_div_pow2. change (2 ^ 12) with 4096. change (2 ^ 3) with 8. lia. }
  rewrite E1, E2, E3, Hb. reflexivity.
Qed.

Theorem with_pdt_inactive s A T ownA own slot op (Q : st -> st -> N -> ownmap -> Prop) :
  Inv2 s A T ownA own -> pdts s slot = T ->
  (forall s1, Inv s1 A T own -> same_env s s1 -> orc s1 = orc s ->
              exists s2 err own', TOp op A T own s1 s2 err own' /\ Q s1 s2 err own') ->
  exists s1 s2 s3 err own',
    with_pdt slot op s = Ok (s3, err) /\ Q s1 s2 err own' /\
    (* the three phases *)
    s1 = flush (wr_st s A 511 (set_frame (ent s A 511) T)) (lea_of A) /\
    TOp op A T own s1 s2 err own' /\
    s3 = flush (wr_st s2 A 511 (ent s A 511)) (lea_of A) /\
    (* the active address space is bit-for-bit what it was *)
    (forall f i, ownA f <> None -> ent s3 f i = ent s f i) /\
    (forall q, hw_idx q 0 <> 511 -> aspace s3 A q = aspace s A q) /\
    (* T's tree is what the operation left *)
    (forall f i, own' f <> None -> ent s3 f i = ent s2 f i) /\
    (forall q, hw_idx q 0 <> 511 -> aspace s3 T q = aspace s2 T q) /\
    (forall q, hw_idx q 0 <> 511 -> aspace s1 T q = aspace s T q) /\
    (* both flushes of the patched slot are logged around the operation's own *)
    flog s3 = lea_of A :: flog s2 /\ flog s1 = lea_of A :: flog s /\
    Inv2 s3 A T ownA own'.
Proof.
  intros [WA WT Hcr Hdisj HF HFA] Hslot Hop.
  assert (HoA: ownA A = Some []) by exact (wf_root _ _ _ WA).
  assert (HownA: own A = None) by (apply Hdisj; rewrite HoA; discriminate).
  assert (HAT: A <> T) by (intros E; rewrite E, (wf_root _ _ _ WT) in HownA; discriminate).
  destruct (wf_owned _ _ _ WA A [] HoA) as (HbA & _).
  assert (HA40: A < 2 ^ 40) by (eapply backed_lt40; [exact (wf_arena _ _ _ WA) | exact HbA]).
  assert (HoT: own T = Some []) by exact (wf_root _ _ _ WT).
  destruct (wf_owned _ _ _ WT T [] HoT) as (HbT & _).
  assert (HT40: T < 2 ^ 40) by (eapply backed_lt40; [exact (wf_arena _ _ _ WT) | exact HbT]).
  destruct (wf_rec _ _ _ WA) as [UA FA].
  set (e := ent s A 511) in *.
  set (lea := lea_of A).
  set (s1 := flush (wr_st s A 511 (set_frame e T)) lea).
  assert (He1: forall f i, ent s1 f i = if (f =? A) && (i =? 511) then set_frame e T else ent s f i).
  { intros. unfold s1. rewrite ent_flush. apply ent_wr. }
  assert (Hn1: forall f, f <> A -> forall i, ent s1 f i = ent s f i).
  { intros f Hf i. rewrite He1. destruct (N.eqb_spec f A); [congruence|reflexivity]. }
  assert (HI1: Inv s1 A T own).
  { split.
    - apply (WF_ent_eq s s1 T own WT); try reflexivity.
      intros f p i Hp. apply Hn1. intros E. rewrite E, HownA in Hp. discriminate.
    - exact Hcr.
    - unfold Rec. replace (backed s1 A) with (backed s A) by reflexivity. replace (backed s1 T) with (backed s T) by reflexivity.
      rewrite HbA, HbT, He1, !N.eqb_refl. cbn [andb].
      rewrite (Hn1 T) by congruence.
      destruct (wf_rec _ _ _ WT) as [UT FT].
      unfold usable in *. rewrite set_frame_P, set_frame_PS, set_frame_frame by exact HT40.
      repeat split; assumption.
    - right. exact HownA.
    - destruct HF as [F1 F2]. split; [exact F1|]. intros f Hin Hz. exact (F2 f Hin Hz). }
  destruct (Hop s1 HI1 ltac:(repeat split) eq_refl) as (s2 & err & own' & (Hrun & HI2 & Henv2 & Hfr2 & (n & Hn & Hown2)) & HQ).
  set (s3 := flush (wr_st s2 A 511 e) lea).
  assert (Hown'A: own' A = None).
  { destruct (Hown2 A) as [E | (_ & Hin & Hz)]; [rewrite E; exact HownA|].
    apply in_firstn in Hin. destruct HF as [_ F2]. destruct (F2 A Hin Hz) as (_ & _ & Hne). congruence. }
  assert (He3: forall f i, ent s3 f i = if (f =? A) && (i =? 511) then e else ent s2 f i).
  { intros. unfold s3. rewrite ent_flush. apply ent_wr. }
  assert (Hn3: forall f, f <> A -> forall i, ent s3 f i = ent s2 f i).
  { intros f Hf i. rewrite He3. destruct (N.eqb_spec f A); [congruence|reflexivity]. }
  assert (E2A: ent s2 A 511 = set_frame e T).
  { rewrite Hfr2 by exact Hown'A. rewrite He1, !N.eqb_refl. reflexivity. }
  assert (Erest: set_frame (ent s2 A 511) A = e).
  { rewrite E2A, set_frame_twice by exact HT40. apply set_frame_same. exact FA. }
  assert (Hrun3: with_pdt slot op s = Ok (s3, err)).
  { unfold with_pdt. rewrite Hslot, page_shift_val, Hcr.
    destruct (N.eqb_spec A T); [congruence|].
    fold (lea_of A). rewrite (phys_lea s A HA40 HbA).
    fold (ent s A 511). fold e. fold lea. fold s1. rewrite Hrun.
    fold (ent s2 A 511). rewrite Erest. reflexivity. }
  (* the active tree is untouched *)
  assert (HtreeA: forall f i, ownA f <> None -> ent s3 f i = ent s f i).
  { intros f i Hf. rewrite He3.
    destruct (N.eqb_spec f A) as [->|HfA]; cbn [andb].
    - destruct (N.eqb_spec i 511) as [->|Hi]; [reflexivity|].
      rewrite Hfr2 by exact Hown'A. rewrite He1, N.eqb_refl. cbn [andb].
      destruct (N.eqb_spec i 511); [congruence|reflexivity].
    - assert (Hof: own' f = None).
      { destruct (Hown2 f) as [E | (_ & Hin & Hz)]; [rewrite E; apply Hdisj; exact Hf|].
        apply in_firstn in Hin. exfalso. apply Hf. apply HFA; assumption. }
      rewrite Hfr2 by exact Hof. apply Hn1. exact HfA. }
  assert (HtreeT: forall f i, own' f <> None -> ent s3 f i = ent s2 f i).
  { intros f i Hf. apply Hn3. intros E. rewrite E in Hf. congruence. }
  exists s1, s2, s3, err, own'.
  split; [exact Hrun3|]. split; [exact HQ|]. split; [reflexivity|].
  split; [unfold TOp; split; [exact Hrun|]; split; [exact HI2|]; split; [exact Henv2|]; split; [exact Hfr2|]; exists n; split; assumption|].
  split; [reflexivity|]. split; [exact HtreeA|].
  split.
  { intros q Hq. apply (aspace_ent_eq s s3 A ownA q WA); try reflexivity.
    - destruct Henv2 as (E1 & E2 & _). exact E1.
    - destruct Henv2 as (E1 & E2 & _). exact E2.
    - intros f p i Hp. apply HtreeA. rewrite Hp. discriminate.
    - exact Hq. }
  split; [exact HtreeT|].
  split.
  { intros q Hq. apply (aspace_ent_eq s2 s3 T own' q (inv_wf _ _ _ _ HI2)); try reflexivity.
    - intros f p i Hp. apply HtreeT. rewrite Hp. discriminate.
    - exact Hq. }
  split.
  { intros q Hq. apply (aspace_ent_eq s s1 T own q WT); try reflexivity.
    - intros f p i Hp. apply Hn1. intros E. rewrite E, HownA in Hp. discriminate.
    - exact Hq. }
  split; [reflexivity|]. split; [reflexivity|].
  destruct Henv2 as (E1 & E2 & E3 & _).
  split.
  - apply (WF_ent_eq s s3 A ownA WA); [exact E1 | exact E2 |].
    intros f p i Hp. apply HtreeA. rewrite Hp. discriminate.
  - apply (WF_ent_eq s2 s3 T own' (inv_wf _ _ _ _ HI2)); try reflexivity.
    intros f p i Hp. apply HtreeT. rewrite Hp. discriminate.
  - change (cr3 s3) with (cr3 s2). rewrite E3. exact Hcr.
  - intros f Hf.
    destruct (Hown2 f) as [E | (_ & Hin & Hz)]; [rewrite E; apply Hdisj; exact Hf|].
    apply in_firstn in Hin. exfalso. apply Hf. apply HFA; assumption.
  - destruct (inv_fresh _ _ _ _ HI2) as [G1 G2]. split; [exact G1|]. intros f Hin Hz. exact (G2 f Hin Hz).
  - intros f Hin Hz. change (orc s3) with (orc s2) in Hin. rewrite Hn in Hin. change (orc s1) with (orc s) in Hin.
    apply HFA; [|exact Hz]. rewrite <- (firstn_skipn n (orc s)). apply in_or_app. right. exact Hin.
Qed.

(** around the operation only slot 511 of [A] is patched and restored: the environment is the operation's, and its
    new tables come from the head of the oracle as it was before *)
Lemma with_pdt_env s A T own e op s1 s2 s3 err own' :
  s1 = flush (wr_st s A 511 (set_frame e T)) (lea_of A) -> TOp op A T own s1 s2 err own' ->
  s3 = flush (wr_st s2 A 511 e) (lea_of A) ->
  same_env s s3 /\
  exists n, orc s3 = skipn n (orc s) /\ forall f, own' f = own f \/ (own f = None /\ In f (firstn n (orc s)) /\ f <> 0).
Proof.
  intros -> (_ & _ & Henv & _ & n & Hn & Hown) ->. split.
  - eapply same_env_trans; [|eapply same_env_trans; [exact Henv|]]; repeat split.
  - exists n. split; [exact Hn | exact Hown].
Qed.

Lemma translation_of_aspace s s' T T' q q' : aspace s' T' q' = aspace s T q -> translation s' T' q' = translation s T q.
Proof. unfold translation. intros ->. reflexivity. Qed.

Theorem pdt_map_inactive s A T ownA own slot page frame flags :
  Inv2 s A T ownA own -> pdts s slot = T -> hw_idx page 0 <> 511 -> zero_guard s frame flags = false ->
  exists s3 err own',
    pdt_map slot page frame flags s = Ok (s3, err) /\ Inv2 s3 A T ownA own' /\ (err = 0 \/ err = E_ALLOC) /\
    (forall f i, ownA f <> None -> ent s3 f i = ent s f i) /\
    (forall q, hw_idx q 0 <> 511 -> aspace s3 A q = aspace s A q) /\
    (err = 0 ->
       aspace s3 T page = Some (set_flags (set_frame 0 frame) flags) /\
       (forall q, hw_idx q 0 <> 511 -> ~ same_page q page -> translation s3 T q = translation s T q) /\
       flog s3 = lea_of A :: frame_addr page :: lea_of A :: flog s) /\
    (err <> 0 ->
       (forall q, hw_idx q 0 <> 511 -> translation s3 T q = translation s T q) /\
       flog s3 = lea_of A :: lea_of A :: flog s) /\
    same_env s s3 /\
    (exists n, orc s3 = skipn n (orc s) /\ forall f, own' f = own f \/ (own f = None /\ In f (firstn n (orc s)) /\ f <> 0)) /\
    (length (orc s) <= length (orc s3) + 3)%nat /\
    ((3 <= length (orc s))%nat -> Forall (fun x => x <> 0) (firstn 3 (orc s)) -> err = 0).
Proof.
  intros HI2 Hslot H511 Hg.
  set (Q := fun (s1 s2 : st) (err : N) (own' : ownmap) =>
              ((length (orc s1) <= length (orc s2) + 3)%nat /\
               ((3 <= length (orc s1))%nat -> Forall (fun x => x <> 0) (firstn 3 (orc s1)) -> err = 0)) /\
              (err = 0 \/ err = E_ALLOC) /\
              (err = 0 ->
                 aspace s2 T page = Some (set_flags (set_frame 0 frame) flags) /\
                 (forall q, hw_idx q 0 <> 511 -> ~ same_page q page -> translation s2 T q = translation s1 T q) /\
                 flog s2 = frame_addr page :: flog s1) /\
              (err <> 0 -> (forall q, hw_idx q 0 <> 511 -> translation s2 T q = translation s1 T q) /\ flog s2 = flog s1)).
  destruct (with_pdt_inactive s A T ownA own slot (map_page page frame flags) Q HI2 Hslot) as
      (s1 & s2 & s3 & err & own' & Hrun & HQ & Es1 & HT & Es3 & HtreeA & HaspA & HtreeT & HaspT & Hasp1 & Hfl3 & Hfl1 & HI3).
  { intros s1 HI1 Henv Horc.
    assert (Hg1: zero_guard s1 frame flags = false).
    { rewrite (same_env_guard s s1 frame flags Henv). exact Hg. }
    destruct (map_ok s1 A T own page frame flags HI1 H511 Hg1) as (s2 & err & own' & Hr & HI & He & Herr & Hok & Hfail & Hfr & _ & Hn & _ & _ & Hb1 & Hb2).
    exists s2, err, own'. split; [split; [exact Hr|]; split; [exact HI|]; split; [exact He|]; split; [exact Hfr | exact Hn]|].
    split; [split; assumption|]. split; [exact Herr|]. split; assumption. }
  destruct HQ as ((Hb1 & Hb2) & Herr & Hok & Hfail).
  exists s3, err, own'. split; [exact Hrun|]. split; [exact HI3|]. split; [exact Herr|].
  split; [exact HtreeA|]. split; [exact HaspA|].
  assert (Htr1: forall q, hw_idx q 0 <> 511 -> translation s1 T q = translation s T q).
  { intros q Hq. apply translation_of_aspace. apply Hasp1. exact Hq. }
  assert (Htr3: forall q, hw_idx q 0 <> 511 -> translation s3 T q = translation s2 T q).
  { intros q Hq. apply translation_of_aspace. apply HaspT. exact Hq. }
  split.
  { intros He0. destruct (Hok He0) as (O1 & O2 & O3). split; [rewrite HaspT by exact H511; exact O1|].
    split.
    - intros q Hq Hne. rewrite Htr3, O2, Htr1 by assumption. reflexivity.
    - rewrite Hfl3, O3, Hfl1. reflexivity. }
  split.
  { intros Hne0. destruct (Hfail Hne0) as (O1 & O2). split.
    - intros q Hq. rewrite Htr3, O1, Htr1 by assumption. reflexivity.
    - rewrite Hfl3, O2, Hfl1. reflexivity. }
  destruct (with_pdt_env s A T own _ _ s1 s2 s3 err own' Es1 HT Es3) as [Henv3 Hn3].
  split; [exact Henv3|]. split; [exact Hn3|].
  replace (orc s3) with (orc s2) by (rewrite Es3; reflexivity). replace (orc s) with (orc s1) by (rewrite Es1; reflexivity).
  split; assumption.
Qed.

Theorem pdt_unmap_inactive s A T ownA own slot page :
  Inv2 s A T ownA own -> pdts s slot = T -> hw_idx page 0 <> 511 ->
  exists s3 err,
    pdt_unmap slot page s = Ok (s3, err) /\ Inv2 s3 A T ownA own /\ (err = 0 \/ err = E_INVALID) /\
    (forall f i, ownA f <> None -> ent s3 f i = ent s f i) /\
    (forall q, hw_idx q 0 <> 511 -> aspace s3 A q = aspace s A q) /\
    (err = 0 -> translation s3 T page = None /\
                (forall q, hw_idx q 0 <> 511 -> ~ same_page q page -> aspace s3 T q = aspace s T q) /\
                flog s3 = lea_of A :: frame_addr page :: lea_of A :: flog s) /\
    (err = E_INVALID -> aspace s T page = None /\ (forall q, hw_idx q 0 <> 511 -> aspace s3 T q = aspace s T q) /\
                        flog s3 = lea_of A :: lea_of A :: flog s).
Proof.
  intros HI2 Hslot H511.
  set (Q := fun (s1 s2 : st) (err : N) (own' : ownmap) =>
              own' = own /\ (err = 0 \/ err = E_INVALID) /\
              (err = E_INVALID -> s2 = s1 /\ aspace s1 T page = None) /\
              (err = 0 -> translation s2 T page = None /\
                          (forall q, hw_idx q 0 <> 511 -> ~ same_page q page -> aspace s2 T q = aspace s1 T q) /\
                          flog s2 = frame_addr page :: flog s1)).
  destruct (with_pdt_inactive s A T ownA own slot (unmap_page page) Q HI2 Hslot) as
      (s1 & s2 & s3 & err & own' & Hrun & HQ & Es1 & HT & Es3 & HtreeA & HaspA & HtreeT & HaspT & Hasp1 & Hfl3 & Hfl1 & HI3).
  { intros s1 HI1 Henv Horc.
    destruct (unmap_ok s1 A T own page HI1 H511) as (s2 & err & Hr & Herr & HI & He & Ho & Hinv & Hok).
    exists s2, err, own. split.
    - split; [exact Hr|]. split; [exact HI|]. split; [exact He|]. split.
      + intros f i Hn. destruct Herr as [E0|E0].
        * destruct (Hok E0) as (e & _ & _ & _ & _ & _ & Hfr & _). apply Hfr. exact Hn.
        * destruct (Hinv E0) as [Es _]. rewrite Es. reflexivity.
      + exists 0%nat. split; [rewrite Ho; reflexivity|]. intros f. left. reflexivity.
    - split; [reflexivity|]. split; [exact Herr|]. split; [exact Hinv|].
      intros E0. destruct (Hok E0) as (e & _ & _ & O1 & O2 & O3 & _ & _). split; [exact O1|]. split; assumption. }
  destruct HQ as (Eown & Herr & Hinv & Hok). subst own'.
  exists s3, err. split; [exact Hrun|]. split; [exact HI3|]. split; [exact Herr|].
  split; [exact HtreeA|]. split; [exact HaspA|].
  split.
  { intros E0. destruct (Hok E0) as (O1 & O2 & O3).
    split; [rewrite (translation_of_aspace s2 s3 T T page page) by (apply HaspT; exact H511); exact O1|].
    split.
    - intros q Hq Hne. rewrite HaspT, O2, Hasp1 by assumption. reflexivity.
    - rewrite Hfl3, O3, Hfl1. reflexivity. }
  intros E0. destruct (Hinv E0) as [Es2 Hnone]. split; [rewrite <- (Hasp1 page H511); exact Hnone|].
  split.
  - intros q Hq. rewrite HaspT, Es2, Hasp1 by assumption. reflexivity.
  - rewrite Hfl3, Es2, Hfl1. reflexivity.
Qed.

(** on the active table the methods are the plain functions *)
Lemma with_pdt_active s slot op :
  N.shiftr (cr3 s) 12 = pdts s slot -> with_pdt slot op s = op s.
Proof. intros H. unfold with_pdt. rewrite page_shift_val, H, N.eqb_refl. reflexivity. Qed.
