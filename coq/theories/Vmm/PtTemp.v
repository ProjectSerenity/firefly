(** The temporary-mapping window; PageDirectoryTable.Init; reserveZeroedFrame. *)
From Coq Require Import NArith ZArith Lia List Bool.
From Coq Require Import ZifyBool ZifyN ZifyNat.
From FF Require Import Lib.Word Gen.Consts_mm_vmm Vmm.Region Vmm.Pt Vmm.PtMem Vmm.PtArith Vmm.PtTree Vmm.PtMap Vmm.PtOps
     Vmm.PtTheorems Vmm.PtInit Vmm.PtPdt Vmm.PtFault Vmm.PtCow Vmm.PtZero.
Import ListNotations.
Local Open Scope N_scope.

Lemma temp_last_entry_addr :
  N.land (add64 (frame_addr temp_page) last_entry_off) 7 = 0 /\
  N.shiftr (add64 (frame_addr temp_page) last_entry_off) 12 = N.shiftr (frame_addr temp_page) 12 /\
  N.shiftr (N.land (add64 (frame_addr temp_page) last_entry_off) 4095) 3 = 511.
Proof. vm_compute. repeat split; reflexivity. Qed.

Lemma frame_addr_temp : frame_addr temp_page = vmm_tempMappingAddr.
Proof. reflexivity. Qed.

(** MapTemporary of a frame that is not a page table *)
Lemma temp_map_spec s A own F :
  Inv s A A own -> (prot s && (F =? zf s)) = false -> backed s F = true -> own F = None -> ~ In F (orc s) ->
  exists s1 err pg own1,
    map_temporary F s = Ok (s1, err, pg) /\ (err = 0 \/ err = E_ALLOC) /\ Inv s1 A A own1 /\ same_env s s1 /\
    own1 F = None /\ ~ In F (orc s1) /\
    (forall f i, own1 f = None -> ent s1 f i = ent s f i) /\
    (exists n, orc s1 = skipn n (orc s) /\ forall f, own1 f = own f \/ (own f = None /\ In f (firstn n (orc s)) /\ f <> 0)) /\
    (err = 0 -> pg = temp_page /\ resolve_page s1 (frame_addr temp_page) = Some F /\
                resolve s1 (add64 (frame_addr temp_page) last_entry_off) = Some (F, 511) /\
                (forall q, hw_idx q 0 <> 511 -> ~ same_page q temp_page -> translation s1 A q = translation s A q) /\
                flog s1 = vmm_tempMappingAddr :: flog s) /\
    (err <> 0 -> pg = 0 /\ (forall q, hw_idx q 0 <> 511 -> translation s1 A q = translation s A q) /\ flog s1 = flog s) /\
    (length (orc s) <= length (orc s1) + 3)%nat /\
    ((3 <= length (orc s))%nat -> Forall (fun x => x <> 0) (firstn 3 (orc s)) -> err = 0).
Proof.
  intros HI Hg HbF HoF HnF.
  pose proof (inv_wf _ _ _ _ HI) as W.
  assert (HF40: F < 2 ^ 40) by (eapply backed_lt40; [exact (wf_arena _ _ _ W) | exact HbF]).
  assert (Hzg: zero_guard s F P_RW = false) by (unfold zero_guard; rewrite Hg; reflexivity).
  destruct (map_ok s A A own temp_page F P_RW HI temp_idx0 Hzg) as
      (s1 & err & own1 & Hrun & HI1 & Henv & Herr & Hok & Hfail & Hfr & _ & (n & Hn & Hown) & _ & _ & Hb1 & Hb2).
  assert (Ho1F: own1 F = None).
  { destruct (Hown F) as [E | (_ & Hin & _)]; [rewrite E; exact HoF | exfalso; apply HnF; eapply in_firstn; exact Hin]. }
  assert (Hn1F: ~ In F (orc s1)) by (rewrite Hn; intros Hin; apply HnF; eapply in_skipn; exact Hin).
  unfold map_temporary. rewrite Hg, Hrun.
  destruct (N.eqb_spec err 0) as [E0|E0].
  - subst err. exists s1, 0, temp_page, own1.
    split; [reflexivity|]. split; [left; reflexivity|]. split; [exact HI1|]. split; [exact Henv|].
    split; [exact Ho1F|]. split; [exact Hn1F|]. split; [exact Hfr|]. split; [exists n; split; assumption|].
    split; [|split; [intros H; congruence | split; assumption]]. intros _.
    destruct (Hok eq_refl) as (Hat & Htr & Hfl).
    destruct (link_entry F HF40) as (LP & LPS & LF).
    assert (Hbk1: backed s1 F = true) by (rewrite (same_env_backed s s1 F Henv); exact HbF).
    assert (Hm: mmu s1 (frame_addr temp_page) = Some F).
    { destruct (mmu_aspace s1 A A own1 temp_page _ HI1 eq_refl temp_idx0 Hat LP) as [M _]; [rewrite LF; exact Hbk1|].
      rewrite LF in M. exact M. }
    split; [reflexivity|]. split; [rewrite resolve_page_mmu; exact Hm|].
    split.
    { destruct temp_last_entry_addr as (T1 & T2 & T3). unfold resolve. rewrite T1. cbn [N.eqb].
      rewrite (mmu_page s1 _ (frame_addr temp_page) T2), Hm, T3. reflexivity. }
    split; [exact Htr | exact Hfl].
  - exists s1, err, 0, own1.
    split; [reflexivity|]. split; [exact Herr|]. split; [exact HI1|]. split; [exact Henv|].
    split; [exact Ho1F|]. split; [exact Hn1F|]. split; [exact Hfr|]. split; [exists n; split; assumption|].
    split; [intros H; congruence|]. split; [|split; assumption]. intros _. destruct (Hfail E0) as (Htr & Hfl). split; [reflexivity|]. split; assumption.
Qed.

(** an address space with nothing mapped *)
Lemma empty_space s F :
  (forall i, i <> 511 -> ent s F i = 0) -> forall q, hw_idx q 0 <> 511 -> aspace s F q = None.
Proof.
  intros Hz q Hq. unfold aspace, ixs. rewrite look_cons. rewrite (Hz _ Hq).
  unfold usable. cbn. rewrite andb_false_r. reflexivity.
Qed.

Lemma hw_walk_follow_inv s ks t pg f :
  Forall (fun k => k < 3) ks -> hw_walk s (ks ++ [3]) t pg = Some f ->
  exists l, follow s t (map (hw_idx pg) ks) = Some l /\ backed s l = true.
Proof.
  revert t. induction ks as [|k r IH]; intros t Hk H; cbn [app hw_walk map follow] in *.
  - destruct (backed s t) eqn:B; [|discriminate]. exists t. split; [reflexivity | exact B].
  - inversion Hk as [|? ? Hk1 Hkr]; subst. destruct (backed s t); [|discriminate]. cbn [andb].
    fold (ent s t (hw_idx pg k)) in H. unfold usable.
    replace (k <? 3) with true in H by (symmetry; apply N.ltb_lt; exact Hk1). rewrite andb_true_r in H.
    destruct (hw_P (ent s t (hw_idx pg k)) && negb (hw_PS (ent s t (hw_idx pg k)))); [|discriminate].
    apply IH; assumption.
Qed.

Lemma mmu_aspace_some s A pg f :
  N.shiftr (cr3 s) 12 = A -> mmu s (frame_addr pg) = Some f -> aspace s A pg <> None.
Proof.
  intros Hcr Hm. unfold mmu, hw_levels in Hm. rewrite Hcr in Hm.
  change [0; 1; 2; 3] with ([0; 1; 2] ++ [3]) in Hm.
  destruct (hw_walk_follow_inv s [0; 1; 2] A _ f ltac:(repeat constructor; lia) Hm) as (l & Hf & Hb).
  cbn [map] in Hf. rewrite !frame_addr_idx in Hf by lia.
  rewrite aspace_follow. unfold ixs. cbn [firstn]. rewrite Hf, Hb. discriminate.
Qed.

(** * PageDirectoryTable.Init on a frame that is not the active table *)
Definition pdt_init_post (s : st) (A : N) (own : ownmap) (slot F : N) (s' : st) (err : N) (own1 : ownmap) : Prop :=
  pdt_init slot F s = Ok (s', err) /\ (err = 0 \/ err = E_ALLOC) /\ pdts s' slot = F /\
    (forall k, k <> slot -> pdts s' k = pdts s k) /\
    lo s' = lo s /\ cnt s' = cnt s /\ cr3 s' = cr3 s /\ zf s' = zf s /\ prot s' = prot s /\ last s' = last s /\ slog s' = slog s /\
    (exists n, orc s' = skipn n (orc s) /\ forall f, own1 f = own f \/ (own f = None /\ In f (firstn n (orc s)) /\ f <> 0)) /\
    (err = 0 ->
       Inv2 s' A F own1 (own_root F) /\
       (forall q, hw_idx q 0 <> 511 -> aspace s' F q = None) /\
       (forall q, hw_idx q 0 <> 511 -> ~ same_page q temp_page -> translation s' A q = translation s A q) /\
       translation s' A temp_page = None /\
       (forall f i, own1 f = None -> f <> F -> ent s' f i = ent s f i)) /\
    (err <> 0 -> Inv s' A A own1 /\ (forall q, hw_idx q 0 <> 511 -> translation s' A q = translation s A q) /\
                 (forall f i, own1 f = None -> ent s' f i = ent s f i)) /\
    (length (orc s) <= length (orc s') + 3)%nat /\
    ((3 <= length (orc s))%nat -> Forall (fun x => x <> 0) (firstn 3 (orc s)) -> err = 0).

Lemma pdt_init_full s A own slot F :
  Inv s A A own -> (prot s && (F =? zf s)) = false -> backed s F = true -> own F = None -> ~ In F (orc s) ->
  exists s' err own1,
    pdt_init_post s A own slot F s' err own1 /\
    (err = 0 -> flog s' = vmm_tempMappingAddr :: vmm_tempMappingAddr :: flog s) /\ (err <> 0 -> flog s' = flog s).
Proof.
  intros HI Hg HbF HoF HnF.
  pose proof (inv_wf _ _ _ _ HI) as W.
  assert (HF40: F < 2 ^ 40) by (eapply backed_lt40; [exact (wf_arena _ _ _ W) | exact HbF]).
  assert (HFA: F <> A) by (intros E; rewrite E, (wf_root _ _ _ W) in HoF; discriminate).
  set (s0 := set_pdt s slot F).
  assert (HI0: Inv s0 A A own) by (apply (Inv_ent_eq s s0 A A own HI); reflexivity).
  assert (Hact: (frame_addr F =? cr3 s0) = false).
  { apply N.eqb_neq. intros E. apply HFA.
    rewrite <- (inv_cr3 _ _ _ _ HI0), <- E. symmetry. exact (frame_addr_shr F HF40). }
  destruct (temp_map_spec s0 A own F HI0 Hg HbF HoF HnF) as
      (s1 & err & pg & own1 & Hrun & Herr & HI1 & Henv1 & Ho1F & Hn1F & Hfr1 & (n & Hn & Hown) & Hok & Hfail & Hb1 & Hb2).
  unfold pdt_init_post, pdt_init. fold s0. rewrite Hact, Hrun.
  destruct Henv1 as (E1 & E2 & E3 & E4 & E5 & Ez & Ep & Epd & Ein).
  destruct (N.eqb_spec err 0) as [E0|E0]; cbn [negb].
  2:{ exists s1, err, own1. split; [|split; [congruence | intros _; exact (proj2 (proj2 (Hfail E0)))]].
      split; [reflexivity|]. split; [exact Herr|].
      split; [rewrite Epd; unfold s0; cbn [pdts set_pdt]; rewrite N.eqb_refl; reflexivity|].
      split; [intros k Hk; rewrite Epd; unfold s0; cbn [pdts set_pdt]; destruct (N.eqb_spec k slot); [congruence|reflexivity]|].
      split; [exact E1|]. split; [exact E2|]. split; [exact E3|]. split; [exact Ez|]. split; [exact Ep|]. split; [exact E5|]. split; [exact E4|].
      split; [exists n; split; assumption|].
      split; [intros H; congruence|]. split; [|split; assumption].
      intros _. destruct (Hfail E0) as (_ & Htr & _). split; [exact HI1|]. split; [exact Htr | exact Hfr1]. }
  subst err. destruct (Hok eq_refl) as (Epg & Hrp & Hre & Htr1 & Hfl1). subst pg.
  rewrite Hrp, Hre.
  set (rec := set_frame (set_flags 0 P_RW) F).
  set (s2 := set_mem s1 (zero (mem s1) F)).
  set (s3 := wr_st s2 F 511 rec).
  assert (He3: forall f i, ent s3 f i = if f =? F then (if i =? 511 then rec else 0) else ent s1 f i).
  { intros f i. unfold s3. rewrite ent_wr. unfold s2, ent. cbn [mem set_mem]. rewrite rd_zero.
    destruct (N.eqb_spec f F); cbn [andb]; [|reflexivity]. destruct (i =? 511); reflexivity. }
  assert (Hn3: forall f, f <> F -> forall i, ent s3 f i = ent s1 f i).
  { intros f Hf i. rewrite He3. destruct (N.eqb_spec f F); [congruence|reflexivity]. }
  assert (HI3: Inv s3 A A own1).
  { apply (Inv_ent_eq s1 s3 A A own1 HI1); try reflexivity.
    intros f i [-> | [-> | (p & Hop & _)]]; apply Hn3; congruence. }
  destruct (unmap_ok s3 A A own1 temp_page HI3 temp_idx0) as (s4 & err4 & Hr4 & Herr4 & HI4 & Henv4 & Horc4 & Hinv4 & Hok4).
  rewrite Hr4.
  exists s4, 0, own1. split.
  2:{ split; [intros _ | intros H; congruence]. destruct Herr4 as [X4|X4].
      - destruct (Hok4 X4) as (e & _ & _ & _ & _ & Hfl4 & _). rewrite Hfl4. change (flog s3) with (flog s1). rewrite Hfl1. reflexivity.
      -
        exfalso. destruct (Hinv4 X4) as [_ Hnone].
        assert (Hm: mmu s1 (frame_addr temp_page) = Some F) by (rewrite <- resolve_page_mmu; exact Hrp).
        rewrite (aspace_ent_eq s1 s3 A own1 temp_page (inv_wf _ _ _ _ HI1)) in Hnone; try reflexivity; [|intros f p i Hp'; apply Hn3; congruence | exact temp_idx0].
        exact (mmu_aspace_some s1 A temp_page F (inv_cr3 _ _ _ _ HI1) Hm Hnone). }
  split; [reflexivity|]. split; [left; reflexivity|].
  destruct Henv4 as (G1 & G2 & G3 & G4 & G5 & Gz & Gp & Gpd & Gin).
  split; [rewrite Gpd; change (pdts s3) with (pdts s1); rewrite Epd; unfold s0; cbn [pdts set_pdt]; rewrite N.eqb_refl; reflexivity|].
  split; [intros k Hk; rewrite Gpd; change (pdts s3) with (pdts s1); rewrite Epd; unfold s0; cbn [pdts set_pdt]; destruct (N.eqb_spec k slot); [congruence|reflexivity]|].
  split; [rewrite G1; exact E1|]. split; [rewrite G2; exact E2|]. split; [rewrite G3; exact E3|].
  split; [rewrite Gz; exact Ez|]. split; [rewrite Gp; exact Ep|]. split; [rewrite G5; exact E5|]. split; [rewrite G4; exact E4|].
  split; [exists n; rewrite Horc4; split; assumption|].
  split; [|split; [intros H; congruence | rewrite Horc4; split; [exact Hb1 | intros; reflexivity]]]. intros _.
  (* unmap did not touch F *)
  assert (He4: forall f i, own1 f = None -> ent s4 f i = ent s3 f i).
  { intros f i Hf. destruct Herr4 as [E|E].
    - destruct (Hok4 E) as (e & _ & _ & _ & _ & _ & Hfr4 & _). apply Hfr4. exact Hf.
    - destruct (Hinv4 E) as [Es _]. rewrite Es. reflexivity. }
  assert (He4F: forall i, ent s4 F i = if i =? 511 then rec else 0).
  { intros i. rewrite He4 by exact Ho1F. rewrite He3, N.eqb_refl. reflexivity. }
  assert (Hrec: rec = N.lor (N.shiftl F 12) 3).
  { unfold rec, set_frame, set_flags, andnot. rewrite frame_addr_small by (change (2 ^ 40) with 1099511627776 in HF40; change (2 ^ 52) with 4503599627370496; lia).
    rewrite N.lor_0_l, P_RW_val. change (N.ldiff 3 vmm_ptePhysPageMask) with 3. apply N.lor_comm. }
  destruct (rec_entry_ok F HF40) as [U1 U2]. rewrite <- Hrec in U1, U2.
  assert (Hbk4: forall f, backed s4 f = backed s f).
  { intros f. unfold backed. rewrite G1, G2. change (lo s3) with (lo s1). change (cnt s3) with (cnt s1). rewrite E1, E2. reflexivity. }
  pose proof (inv_wf _ _ _ _ HI4) as W4.
  destruct (inv_fresh _ _ _ _ HI4) as [F41 F42].
  split.
  { split.
    - exact W4.
    - split.
      + exact (wf_arena _ _ _ W4).
      + unfold own_root. rewrite N.eqb_refl. reflexivity.
      + intros t p. unfold own_root. destruct (N.eqb_spec t F) as [->|]; [|discriminate].
        intros E; inversion E as [Ep']. split; [rewrite Hbk4; exact HbF|]. split; [cbn; lia|]. split; [constructor | cbn; lia].
      + rewrite He4F. cbn [N.eqb]. split; assumption.
      + intros t p i. unfold own_root at 1. destruct (N.eqb_spec t F) as [->|]; [|discriminate].
        intros E Hl Hi Hne; inversion E as [Ep']. rewrite <- Ep' in *. cbn [app] in Hne.
        assert (i <> 511) by (intros Ei; rewrite Ei in Hne; apply Hne; reflexivity).
        rewrite He4F. destruct (N.eqb_spec i 511); [congruence|]. split; [reflexivity | discriminate].
    - exact (inv_cr3 _ _ _ _ HI4).
    - intros f Hf. unfold own_root. destruct (N.eqb_spec f F) as [->|]; [congruence | reflexivity].
    - split; [exact F41|]. intros f Hin Hz. destruct (F42 f Hin Hz) as (B1 & B2 & B3). split; [exact B1|]. split; [|exact B3].
      unfold own_root. destruct (N.eqb_spec f F) as [->|]; [|reflexivity].
      exfalso. apply Hn1F. rewrite Horc4 in Hin. exact Hin.
    - intros f Hin Hz. destruct (F42 f Hin Hz) as (_ & B2 & _). exact B2. }
  split.
  { apply empty_space. intros i Hi. rewrite He4F. destruct (N.eqb_spec i 511); [congruence|reflexivity]. }
  pose proof (inv_wf _ _ _ _ HI1) as W1. pose proof (inv_wf _ _ _ _ HI3) as W3.
  assert (A31: forall q, hw_idx q 0 <> 511 -> aspace s3 A q = aspace s1 A q).
  { intros q Hq. apply (aspace_ent_eq s1 s3 A own1 q W1); try reflexivity; [|exact Hq].
    intros f p i Hp. apply Hn3. congruence. }
  split.
  { intros q Hq Hnt. transitivity (translation s0 A q); [|reflexivity]. rewrite <- (Htr1 q Hq Hnt).
    unfold translation. rewrite <- (A31 q Hq).
    destruct Herr4 as [E|E].
    - destruct (Hok4 E) as (e & _ & _ & _ & Hoth & _). rewrite (Hoth q Hq Hnt). reflexivity.
    - destruct (Hinv4 E) as [Es _]. rewrite Es. reflexivity. }
  split.
  { destruct Herr4 as [E|E].
    - destruct (Hok4 E) as (e & _ & _ & Ht & _). exact Ht.
    - destruct (Hinv4 E) as [Es Hnone]. rewrite Es. unfold translation. rewrite Hnone. reflexivity. }
  intros f i Hf HfF. rewrite He4 by exact Hf. rewrite Hn3 by exact HfF. rewrite Hfr1 by exact Hf. reflexivity.
Qed.

Theorem pdt_init_spec s A own slot F :
  Inv s A A own -> (prot s && (F =? zf s)) = false -> backed s F = true -> own F = None -> ~ In F (orc s) ->
  exists s' err own1,
    pdt_init slot F s = Ok (s', err) /\ (err = 0 \/ err = E_ALLOC) /\ pdts s' slot = F /\
    (forall k, k <> slot -> pdts s' k = pdts s k) /\
    lo s' = lo s /\ cnt s' = cnt s /\ cr3 s' = cr3 s /\ zf s' = zf s /\ prot s' = prot s /\ last s' = last s /\ slog s' = slog s /\
    (exists n, orc s' = skipn n (orc s) /\ forall f, own1 f = own f \/ (own f = None /\ In f (firstn n (orc s)) /\ f <> 0)) /\
    (err = 0 ->
       Inv2 s' A F own1 (own_root F) /\
       (forall q, hw_idx q 0 <> 511 -> aspace s' F q = None) /\
       (forall q, hw_idx q 0 <> 511 -> ~ same_page q temp_page -> translation s' A q = translation s A q) /\
       translation s' A temp_page = None /\
       (forall f i, own1 f = None -> f <> F -> ent s' f i = ent s f i)) /\
    (err <> 0 -> Inv s' A A own1 /\ (forall q, hw_idx q 0 <> 511 -> translation s' A q = translation s A q) /\
                 (forall f i, own1 f = None -> ent s' f i = ent s f i)) /\
    (length (orc s) <= length (orc s') + 3)%nat /\
    ((3 <= length (orc s))%nat -> Forall (fun x => x <> 0) (firstn 3 (orc s)) -> err = 0).
Proof.
  intros HI Hg HbF HoF HnF. destruct (pdt_init_full s A own slot F HI Hg HbF HoF HnF) as (s' & err & own1 & H & _).
  exists s', err, own1. exact H.
Qed.

(** * reserveZeroedFrame establishes the zero-frame invariant ("once the VMM is initialised") *)
Theorem reserve_zeroed_spec s A own F r :
  Inv s A A own -> prot s = false -> orc s = F :: r -> F <> 0 ->
  (* the allocator hands out frames nobody uses: no page maps F *)
  (forall q fl, hw_idx q 0 <> 511 -> translation s A q <> Some (F, fl)) ->
  exists s' err own1,
    reserve_zeroed s = Ok (s', err) /\ (err = 0 \/ err = E_ALLOC) /\ zf s' = F /\
    (err = 0 -> ZInv s' A own1 /\
                (forall q, hw_idx q 0 <> 511 -> ~ same_page q temp_page -> translation s' A q = translation s A q) /\
                translation s' A temp_page = None).
Proof.
  intros HI Hp Eo Hz Hunm.
  pose proof (inv_wf _ _ _ _ HI) as W.
  destruct (inv_fresh _ _ _ _ HI) as [F1 F2].
  destruct (F2 F) as (HbF & HoF & HFA); [rewrite Eo; left; reflexivity | exact Hz |].
  assert (HnF: ~ In F r).
  { rewrite Eo in F1. eapply ofr_head_fresh; eassumption. }
  set (s2 := set_zf (set_orc s r) F).
  assert (HI2: Inv s2 A A own).
  { apply (Inv_ent_eq (set_orc s r) s2 A A own); try reflexivity. eapply Inv_pop; eassumption. }
  assert (Hg: (prot s2 && (F =? zf s2)) = false) by (unfold s2; cbn [prot set_zf set_orc]; rewrite Hp; reflexivity).
  destruct (temp_map_spec s2 A own F HI2 Hg HbF HoF HnF) as
      (s3 & err & pg & own1 & Hrun & Herr & HI3 & Henv3 & Ho1F & Hn1F & Hfr3 & (n & Hn & Hown) & Hok & Hfail & _ & _).
  unfold reserve_zeroed, alloc. rewrite Eo. destruct (N.eqb_spec F 0); [congruence|].
  fold s2. rewrite Hrun.
  destruct Henv3 as (E1 & E2 & E3 & E4 & E5 & Ez & Ep & Epd & Ein).
  destruct (N.eqb_spec err 0) as [E0|E0]; cbn [negb].
  2:{ exists s3, err, own1. split; [reflexivity|]. split; [exact Herr|]. split; [rewrite Ez; reflexivity|]. intros H; congruence. }
  subst err. destruct (Hok eq_refl) as (Epg & Hrp & _ & Htr3 & Hfl3). subst pg. rewrite Hrp.
  set (s4 := set_mem s3 (zero (mem s3) F)).
  assert (He4: forall f i, ent s4 f i = if f =? F then 0 else ent s3 f i).
  { intros. unfold s4, ent. cbn [mem set_mem]. apply rd_zero. }
  assert (Hn4: forall f, f <> F -> forall i, ent s4 f i = ent s3 f i).
  { intros f Hf i. rewrite He4. destruct (N.eqb_spec f F); [congruence|reflexivity]. }
  assert (HI4: Inv s4 A A own1).
  { apply (Inv_ent_eq s3 s4 A A own1 HI3); try reflexivity.
    intros f i [-> | [-> | (p & Hop & _)]]; apply Hn4; congruence. }
  destruct (unmap_ok s4 A A own1 temp_page HI4 temp_idx0) as (s5 & err5 & Hr5 & Herr5 & HI5 & Henv5 & Horc5 & Hinv5 & Hok5).
  rewrite Hr5.
  exists (set_prot s5 true), 0, own1. split; [reflexivity|]. split; [left; reflexivity|].
  destruct Henv5 as (G1 & G2 & G3 & G4 & G5 & Gz & Gp & Gpd & Gin).
  assert (Hzf: zf (set_prot s5 true) = F).
  { cbn [zf set_prot]. rewrite Gz. change (zf s4) with (zf s3). rewrite Ez. reflexivity. }
  split; [exact Hzf|]. intros _.
  assert (He5: forall f i, own1 f = None -> ent s5 f i = ent s4 f i).
  { intros f i Hf. destruct Herr5 as [E|E].
    - destruct (Hok5 E) as (e & _ & _ & _ & _ & _ & Hfr5 & _). apply Hfr5. exact Hf.
    - destruct (Hinv5 E) as [Es _]. rewrite Es. reflexivity. }
  pose proof (inv_wf _ _ _ _ HI3) as W3.
  assert (A43: forall q, hw_idx q 0 <> 511 -> aspace s4 A q = aspace s3 A q).
  { intros q Hq. apply (aspace_ent_eq s3 s4 A own1 q W3); try reflexivity; [|exact Hq].
    intros f p i Hpp. apply Hn4. congruence. }
  assert (Htr_other: forall q, hw_idx q 0 <> 511 -> ~ same_page q temp_page ->
                               translation (set_prot s5 true) A q = translation s A q).
  { intros q Hq Hnt. transitivity (translation s5 A q); [reflexivity|].
    transitivity (translation s2 A q); [|reflexivity]. rewrite <- (Htr3 q Hq Hnt).
    unfold translation. rewrite <- (A43 q Hq).
    destruct Herr5 as [E|E].
    - destruct (Hok5 E) as (e & _ & _ & _ & Hoth & _). rewrite (Hoth q Hq Hnt). reflexivity.
    - destruct (Hinv5 E) as [Es _]. rewrite Es. reflexivity. }
  assert (Htr_temp: translation (set_prot s5 true) A temp_page = None).
  { transitivity (translation s5 A temp_page); [reflexivity|].
    destruct Herr5 as [E|E].
    - destruct (Hok5 E) as (e & _ & _ & Ht & _). exact Ht.
    - destruct (Hinv5 E) as [Es Hnone]. rewrite Es. unfold translation. rewrite Hnone. reflexivity. }
  split; [|split; assumption].
  split.
  - apply (Inv_ent_eq s5 (set_prot s5 true) A A own1 HI5); reflexivity.
  - reflexivity.
  - rewrite Hzf. exact Ho1F.
  - rewrite Hzf. cbn [orc set_prot]. rewrite Horc5. exact Hn1F.
  - rewrite Hzf. unfold backed. cbn [lo cnt set_prot]. rewrite G1, G2. change (lo s4) with (lo s3). change (cnt s4) with (cnt s3).
    rewrite E1, E2. exact HbF.
  - intros i. rewrite Hzf. transitivity (ent s5 F i); [reflexivity|]. rewrite He5 by exact Ho1F. rewrite He4, N.eqb_refl. reflexivity.
  - intros q fl Hq Htr. rewrite Hzf in Htr. exfalso.
    destruct (list_eq_dec N.eq_dec (ixs q) (ixs temp_page)) as [Et|Hdt].
    + unfold translation, aspace in *. rewrite Et in Htr. rewrite Htr_temp in Htr. discriminate.
    + rewrite (Htr_other q Hq Hdt) in Htr. exact (Hunm q fl Hq Htr).
Qed.
