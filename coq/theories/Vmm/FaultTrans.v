(** The hand-written model of pageFaultHandler (Vmm/Pt.v: [page_fault]) against the Gallina translation that gen/gotrans
    ("memory as state" mode, config vmm_fault.json) regenerates from kernel/mm/vmm/fault_amd64.go on every run
    (Gen/Trans_vmm_fault.v).  The closure passed to walk is the body of [gvisit .. (walk_items ..)]; readCR2Fn,
    mm.AllocFrame, mapTemporaryFn, kernel.Memcopy, unmapFn, flushTLBEntryFn are seams with the model's environment as
    oracles; nonRecoverablePageFault never returns (it panics): its call is recorded and ENDS the translated function, so
    the result shows the state at the moment of the panic and, as the most recent event, the call with its error. *)
From Coq Require Import NArith ZArith String List Bool Lia FMapPositive.
From Coq Require Import ZifyBool ZifyN ZifyNat.
From FF Require Import Lib.Word Lib.GoOps Lib.GoOpsProofs Lib.GoVisit Gen.Consts_mm_vmm Gen.Trans_vmm_fault.
From FF Require Import Vmm.Pt Vmm.PtMem Vmm.PtAccess Vmm.PtArith.
From FF Require Vmm.PdtTrans Vmm.MapTrans Vmm.RegionTrans.
Module P := FF.Vmm.PdtTrans.
Module M := FF.Vmm.MapTrans.
Import ListNotations.
Local Open Scope N_scope.

Notation W := mk_go_vmm_world (only parsing).

(** ---- the entry addresses of the recursive window are never 0 (nil) ---- *)
Lemma entry_index_lt va sh : entry_index va sh 9 < 512.
Proof.
  unfold entry_index. change (N.shiftl 1 9 - 1) with (N.ones 9). rewrite N.land_ones.
  change (2 ^ 9) with 512. apply N.mod_lt. discriminate.
Qed.

(** one level of the recursive-window arithmetic: an entry of a table in the top [span] bytes lies in the top [span] bytes, and
    shifting its address left by 9 bits (the table it points to, seen through the window) drops the 9 leading ones *)
Lemma window_arith span ta d :
  4096 <= span -> span <= 549755813888 -> 18446744073709551616 - span <= ta -> ta < 18446744073709551616 -> ta mod 4096 = 0 ->
  d < 512 ->
  let ea := ta + d * 8 in
  (ea * 512) mod 18446744073709551616 = (ea - (18446744073709551616 - span)) * 512 + (18446744073709551616 - span * 512) /\
  18446744073709551616 - span <= ea /\ ea < 18446744073709551616 /\ ea <> 0.
Proof.
  intros H1 H2 H3 H4 H5 H6 ea.
  assert (Hea : ea < 18446744073709551616) by (unfold ea; lia).
  split; [|unfold ea; lia].
  assert (E : ea * 512 = (ea - (18446744073709551616 - span)) * 512 + (18446744073709551616 - span * 512) + 511 * 18446744073709551616)
    by (unfold ea; lia).
  rewrite E, N.mod_add by discriminate. apply N.mod_small. unfold ea. lia.
Qed.

Lemma entry_addr_high ta va sh k :
  k <= 39 -> 12 <= k -> two64 - 2 ^ k <= ta -> ta < two64 -> ta mod 4096 = 0 ->
  let ea := entry_addr ta va sh 9 in
  two64 - 2 ^ k <= ea /\ ea < two64 /\ ea <> 0 /\
  two64 - 2 ^ (k + 9) <= shl64 ea 9 /\ shl64 ea 9 < two64 /\ shl64 ea 9 mod 4096 = 0.
Proof.
  intros Hk Hk12 Hlo Hhi Hal ea.
  assert (Hp : 4096 <= 2 ^ k) by (change 4096 with (2 ^ 12); apply N.pow_le_mono_r; [discriminate | exact Hk12]).
  assert (Hp2 : 2 ^ k <= 549755813888) by (change 549755813888 with (2 ^ 39); apply N.pow_le_mono_r; [discriminate | exact Hk]).
  rewrite N.pow_add_r. change (2 ^ 9) with 512.
  pose proof (entry_index_lt va sh) as Hi.
  unfold two64 in *. clear Hk Hk12.
  destruct (window_arith (2 ^ k) ta (entry_index va sh 9) Hp Hp2 Hlo Hhi Hal Hi) as (Hs & H1 & H2 & H3).
  assert (Hea : ea = ta + entry_index va sh 9 * 8).
  { unfold ea, entry_addr, add64, shl64, w64, two64. rewrite pointer_shift_val, N.shiftl_mul_pow2. change (2 ^ 3) with 8.
    rewrite (N.mod_small (entry_index va sh 9 * 8)) by (clear -Hi; lia).
    apply N.mod_small. exact H2. }
  unfold shl64, w64, two64. rewrite N.shiftl_mul_pow2. change (2 ^ 9) with 512.
  rewrite Hea, Hs. clear Hs Hea ea.
  generalize dependent (entry_index va sh 9). intros d _. generalize dependent (2 ^ k). intros span. intros.
  lia.
Qed.

Lemma walk_items_from_nonzero va lv : forall level ta k,
  Forall (fun x : N * N => snd x = 9) lv -> 12 <= k -> k + 9 * N.of_nat (length lv) <= 48 ->
  two64 - 2 ^ k <= ta -> ta < two64 -> ta mod 4096 = 0 ->
  forall l p, In (l, p) (walk_items_from lv level ta va) -> p <> 0.
Proof.
  induction lv as [|[sh bits] rest IH]; intros level ta k Hb Hk Hlen Hlo Hhi Hal l p; cbn [walk_items_from In]; [tauto|].
  inversion Hb as [|? ? Hb1 Hb']; subst. cbn [snd] in Hb1. subst bits. cbn [length] in Hlen.
  destruct (entry_addr_high ta va sh k ltac:(lia) Hk Hlo Hhi Hal) as (_ & _ & Hnz & Hlo' & Hhi' & Hal').
  intros [E|Hin]; [injection E as _ <-; exact Hnz|].
  apply (IH (level + 1) _ (k + 9) Hb' ltac:(lia) ltac:(lia) Hlo' Hhi' Hal' l p Hin).
Qed.

Lemma walk_items_nonzero va l p : In (l, p) (walk_items va) -> p <> 0.
Proof.
  apply (walk_items_from_nonzero va go_levels 0 vmm_pdtVirtualAddr 12); try reflexivity; try discriminate.
  repeat constructor.
Qed.

(** ---- pageFaultHandler ---- *)
(** the helpers of this translation unit are those of Vmm/PdtTrans.v, MapTrans.v, RegionTrans.v (same source, same term) *)
Lemma page_addr_any f : go_mm_Page_Address f = frame_addr f.
Proof. exact (P.frame_addr_any f). Qed.
Lemma set_frame_any e f : e < two64 -> go_vmm_pageTableEntry_SetFrame e f = set_frame e f.
Proof. exact (P.set_frame_any e f). Qed.
Lemma set_flags_any e fl : e < two64 -> fl < two64 -> go_vmm_pageTableEntry_SetFlags e fl = set_flags e fl.
Proof. exact (P.set_flags_any e fl). Qed.
Lemma clear_flags_any e fl : e < two64 -> fl < two64 -> go_vmm_pageTableEntry_ClearFlags e fl = clear_flags e fl.
Proof. exact (M.clear_flags_any e fl). Qed.
Lemma has_flags_any e fl : e < two64 -> fl < two64 -> go_vmm_pageTableEntry_HasFlags e fl = has_flags e fl.
Proof. exact (M.has_flags_any e fl). Qed.
Lemma page_from_addr_any a : a < two64 -> go_mm_PageFromAddress a = page_from_addr a.
Proof. intros Ha. exact (proj1 (RegionTrans.page_of_addr_is_translation a Ha)). Qed.

(** ---- the oracles of the model's environment that are particular to the fault handler ---- *)
Definition o_cr2 (addr : N) (_ : list gcall) (s : st) : option (st * N) := Some (s, addr).
Definition o_nonrec (_ : list gcall) (s : st) : option (st * unit) := Some (s, tt).
(** kernel.Memcopy(src, dst, mm.PageSize) between two mapped pages: the model's page-copy step *)
Definition o_memcopy (tr : list gcall) (s : st) : option (st * unit) :=
  match tr with
  | GCall _ [GNum a; GNum b; GNum n] :: _ =>
      if n =? mm_PageSize then
        match resolve_page s a, resolve_page s b with
        | Some src, Some dst => Some (set_mem s (cpy (mem s) src dst), tt)
        | _, _ => None
        end
      else None
  | _ => None
  end.

(** what the theorem observes of a run: the final machine state and the kernel panic (the arguments of the call of
    nonRecoverablePageFault that ended the run), if any *)
Definition panic_of (tr : list gcall) : option (list garg) :=
  match tr with
  | GCall name args :: _ => if String.eqb name "nonRecoverablePageFault" then Some args else None
  | [] => None
  end.
Definition fres (r : gres (go_vmm_world * unit)) : gres (st * option (list garg)) :=
  match r with
  | GOk (w, _) => GOk (f_world_mem w, panic_of (f_world_trace w))
  | GPanic => GPanic
  | GFuel => GFuel
  end.
Definition fault_res (addr regs : N) (r : R (st * N)) : gres (st * option (list garg)) :=
  match r with
  | Stray => GPanic
  | Ok (s', out) =>
      GOk (s', if out =? 0 then None else Some [GNum addr; GNum regs; err_arg (P.err_of (out - PANIC))])
  end.

Lemma keeps_cpy s src dst : P.keeps s (set_mem s (cpy (mem s) src dst)).
Proof.
  repeat split. intros H f' i'. unfold set_mem. cbn [mem]. rewrite rd_cpy.
  destruct (f' =? dst); apply H.
Qed.

(** the condition under which the model (the leaf entry resolved once, before the copy) and the code (the pointer
    dereferenced again after the temporary mapping has come and gone) agree *)
Definition fault_stable (addr : N) (s : st) : Prop :=
  let fva := frame_addr (page_from_addr addr) in
  forall p f i s1 cp s2 page src dst s3 e3,
    In (last_level, p) (walk_items fva) -> resolve s p = Some (f, i) ->
    fault_walk go_levels 0 vmm_pdtVirtualAddr fva s None = Ok (Some (f, i)) ->
    negb (has_flags (rd (mem s) f i) vmm_FlagRW) && has_flags (rd (mem s) f i) vmm_FlagCopyOnWrite = true ->
    alloc s = (s1, Some cp) -> map_temporary cp s1 = Ok (s2, 0, page) ->
    resolve_page s2 fva = Some src -> resolve_page s2 (frame_addr page) = Some dst ->
    unmap_page page (set_mem s2 (cpy (mem s2) src dst)) = Ok (s3, e3) ->
    resolve s3 p = Some (f, i) /\ M.entry_stable s3 p f i.

Ltac wsimp := cbn [f_world_trace f_world_mem set_f_world_trace set_f_world_mem].

Definition fw_rel (s : st) (tr : list gcall) (all : list (N * N)) (g : gres (go_vmm_world * N)) (r : R (option (N * N))) : Prop :=
  match g, r with
  | GPanic, Stray => True
  | GOk (w, p), Ok None => w = W tr s /\ p = 0
  | GOk (w, p), Ok (Some fi) => w = W tr s /\ p <> 0 /\ resolve s p = Some fi /\ In (last_level, p) all
  | _, _ => False
  end.

Theorem fault_handler_is_translation addr regs s tr0 :
  addr < two64 -> P.mem_w64 s -> fault_stable addr s ->
  fres (go_vmm_pageFaultHandler (W tr0 s) regs P.o_flush o_memcopy P.o_maptemp M.o_alloc o_nonrec (o_cr2 addr) P.o_unmap)
  = fault_res addr regs (page_fault addr s).
Proof.
  intros Ha Hw Hst. unfold go_vmm_pageFaultHandler, page_fault.
  unfold go_vmm_world_seam at 1. wsimp. cbn [o_cr2]. wsimp.
  rewrite (gw64_small addr Ha), (page_from_addr_any addr Ha), page_addr_any.
  set (fva := frame_addr (page_from_addr addr)) in *.
  set (tr1 := GCall "readCR2Fn" [] :: tr0).
  cbv zeta.
  match goal with |- context [gvisit ?f _ _] => set (clo := f) end.
  assert (HI : forall lv level ta p pe,
             level + N.of_nat (length lv) = 4 ->
             (forall x, In x (walk_items_from lv level ta fva) -> In x (walk_items fva)) ->
             match pe with None => p = 0 | Some fi => p <> 0 /\ resolve s p = Some fi /\ In (last_level, p) (walk_items fva) end ->
             fw_rel s tr1 (walk_items fva) (gvisit clo (walk_items_from lv level ta fva) (W tr1 s, p))
                    (fault_walk lv level ta fva s pe)).
  { induction lv as [|[sh bits] rest IH]; intros level ta p pe Hlen Hin Hp.
    { cbn [walk_items_from gvisit fault_walk]. unfold fw_rel. destruct pe as [fi|]; [|split; [reflexivity|exact Hp]].
      destruct Hp as (H1 & H2 & H3). repeat split; assumption. }
    cbn [walk_items_from gvisit fault_walk].
    set (ea := entry_addr ta fva sh bits) in *.
    unfold clo at 1. cbv beta iota.
    change (gsub 8 vmm_pageLevels 1) with last_level.
    unfold go_vmm_world_load_virt, vload. wsimp.
    destruct (resolve s ea) as [[f i]|] eqn:Er; [|exact I].
    assert (HP : vmm_FlagPresent < two64) by reflexivity.
    rewrite (has_flags_any _ _ (Hw f i) HP). cbv zeta.
    assert (Hea : In (level, ea) (walk_items fva)) by (apply Hin; cbn [walk_items_from In]; left; reflexivity).
    assert (Hin' : forall x, In x (walk_items_from rest (level + 1) (shl64 ea bits) fva) -> In x (walk_items fva))
      by (intros x Hx; apply Hin; cbn [walk_items_from In]; right; exact Hx).
    destruct (has_flags (rd (mem s) f i) vmm_FlagPresent) eqn:Epr.
    - rewrite andb_true_r.
      destruct (level =? last_level) eqn:Elv.
      + apply IH; [cbn [length] in Hlen; lia | exact Hin' |].
        split; [eapply walk_items_nonzero; exact Hea|]. split; [exact Er|].
        apply N.eqb_eq in Elv. rewrite <- Elv. exact Hea.
      + apply IH; [cbn [length] in Hlen; lia | exact Hin' | exact Hp].
    - rewrite andb_false_r. cbn. destruct pe as [fi|]; [|split; [reflexivity|exact Hp]].
      destruct Hp as (H1 & H2 & H3). repeat split; assumption. }
  specialize (HI go_levels 0 vmm_pdtVirtualAddr 0 None eq_refl (fun x H => H) eq_refl).
  fold (walk_items fva) in HI.
  unfold fw_rel in HI.
  change (set_f_world_mem (set_f_world_trace (W tr0 s) tr1) s) with (W tr1 s).
  destruct (gvisit clo (walk_items fva) (W tr1 s, 0)) as [[w p]| |];
    destruct (fault_walk go_levels 0 vmm_pdtVirtualAddr fva s None) as [[[f i]|]|] eqn:Efw; try contradiction; try reflexivity.
  2:{ destruct HI as [-> ->]. cbn [N.eqb negb]. unfold go_vmm_world_seam. wsimp. reflexivity. }
  destruct HI as (-> & Hp0 & Hr & Hin).
  apply N.eqb_neq in Hp0. rewrite Hp0. cbn [negb].
  unfold go_vmm_world_load_virt at 1 2, vload. wsimp. rewrite Hr.
  assert (HRW : vmm_FlagRW < two64) by reflexivity.
  assert (HCW : vmm_FlagCopyOnWrite < two64) by reflexivity.
  rewrite (has_flags_any _ _ (Hw f i) HRW), (has_flags_any _ _ (Hw f i) HCW).
  set (e := rd (mem s) f i) in *.
  destruct (negb (has_flags e vmm_FlagRW)) eqn:Enrw; cbn [andb].
  2:{ unfold go_vmm_world_seam. wsimp. reflexivity. }
  destruct (has_flags e vmm_FlagCopyOnWrite) eqn:Ecow.
  2:{ unfold go_vmm_world_seam. wsimp. reflexivity. }
  assert (Hcw : negb (has_flags (rd (mem s) f i) vmm_FlagRW) && has_flags (rd (mem s) f i) vmm_FlagCopyOnWrite = true)
    by (fold e; rewrite Enrw, Ecow; reflexivity).
  unfold go_vmm_world_seam at 1. wsimp. unfold M.o_alloc.
  destruct (alloc s) as [s1 [cp|]] eqn:Ea.
  2:{ cbn [gerr_eqb negb P.err_of]. unfold go_vmm_world_seam. wsimp. reflexivity. }
  cbn [gerr_eqb negb]. wsimp.
  unfold go_vmm_world_seam at 1. wsimp. cbn [P.o_maptemp].
  destruct (map_temporary cp s1) as [[[s2 err] page]|] eqn:Emt; [|reflexivity].
  rewrite P.err_of_nil.
  destruct (err =? 0) eqn:Eerr; cbn [negb].
  2:{ unfold go_vmm_world_seam. wsimp. cbn [o_nonrec fres fault_res panic_of String.eqb Ascii.eqb Bool.eqb].
      apply N.eqb_neq in Eerr.
      assert (E1 : (PANIC + err =? 0) = false) by (apply N.eqb_neq; unfold PANIC; lia).
      rewrite E1. replace (PANIC + err - PANIC) with err by lia. reflexivity. }
  apply N.eqb_eq in Eerr. subst err.
  rewrite page_addr_any.
  unfold go_vmm_world_seam at 1. wsimp. cbn [o_memcopy]. rewrite N.eqb_refl.
  destruct (resolve_page s2 fva) as [src|] eqn:Es; [|reflexivity].
  destruct (resolve_page s2 (frame_addr page)) as [dst|] eqn:Ed; [|reflexivity].
  wsimp.
  unfold go_vmm_world_seam at 1. wsimp. cbn [P.o_unmap].
  destruct (unmap_page page (set_mem s2 (cpy (mem s2) src dst))) as [[s3 e3]|] eqn:Eu; cbn [P.lift_op]; [|reflexivity].
  wsimp.
  destruct (Hst p f i s1 cp s2 page src dst s3 e3 Hin Hr Efw Hcw Ea Emt Es Ed Eu) as [Hr3 Hes].
  assert (Hw3 : P.mem_w64 s3).
  { apply (P.unmap_page_keeps _ _ _ _ Eu). apply keeps_cpy. apply (P.map_temporary_keeps _ _ _ _ _ Emt).
    apply (P.keeps_alloc _ _ _ Ea). exact Hw. }
  unfold go_vmm_world_load_virt, go_vmm_world_store_virt, vload, vstore. wsimp.
  rewrite Hr3. wsimp.
  rewrite (clear_flags_any _ _ (Hw3 f i) HCW).
  rewrite (Hes _), P.rd_wr_st. wsimp.
  change (N.lor vmm_FlagPresent vmm_FlagRW) with P_RW.
  rewrite (set_flags_any _ P_RW (P.clear_flags_lt _ _ (Hw3 f i)) P.P_RW_lt).
  rewrite P.wr_st_wr_st, (Hes _), P.rd_wr_st. wsimp.
  rewrite (set_frame_any _ cp (P.set_flags_lt _ _ (P.clear_flags_lt _ _ (Hw3 f i)) P.P_RW_lt)).
  rewrite P.wr_st_wr_st.
  unfold go_vmm_world_seam. wsimp. cbn [P.o_flush]. wsimp.
  reflexivity.
Qed.
