(** Bits the translation ignores.  The invariant [Inv] and every address space are insensitive to the
    Accessed / Dirty / Global / available / NX / User / cache bits of present upper-level entries and of
    the recursive entries: states in which the CPU or an OS has set such bits are inside the quantifier of
    all C04-C06 theorems (the harness's set-up op [OOrUpper] produces them). *)
From Coq Require Import NArith ZArith Lia List Bool.
From Coq Require Import ZifyBool ZifyN ZifyNat.
From FF Require Import Lib.Word Gen.Consts_mm_vmm Vmm.Region Vmm.Pt Vmm.PtMem Vmm.PtArith Vmm.PtTree Vmm.PtMap Vmm.PtOps.
Import ListNotations.
Local Open Scope N_scope.

Lemma safe_disjoint : N.land safe_bits (N.lor vmm_ptePhysPageMask 0x81) = 0.
Proof. reflexivity. Qed.

Lemma safe_mask_bits x n :
  N.testbit (N.lor vmm_ptePhysPageMask 0x81) n = true -> N.testbit (N.land x safe_bits) n = false.
Proof.
  intros H. pose proof safe_disjoint as D. apply (f_equal (fun v => N.testbit v n)) in D.
  rewrite N.land_spec, H, andb_true_r, N.bits_0 in D. rewrite N.land_spec, D. apply andb_false_r.
Qed.

Lemma or_safe_bits e x :
  hw_P (N.lor e (N.land x safe_bits)) = hw_P e /\ hw_PS (N.lor e (N.land x safe_bits)) = hw_PS e /\
  hw_frame (N.lor e (N.land x safe_bits)) = hw_frame e.
Proof.
  set (m := N.land x safe_bits).
  assert (Hb: forall n, N.testbit (N.lor vmm_ptePhysPageMask 0x81) n = true -> N.testbit (N.lor e m) n = N.testbit e n).
  { intros n Hn. rewrite N.lor_spec. unfold m. rewrite (safe_mask_bits x n Hn). apply orb_false_r. }
  split; [apply Hb; reflexivity|]. split; [apply Hb; reflexivity|].
  unfold hw_frame. change 0xFFFFFFFFFF with (N.ones 40).
  apply N.bits_inj. intros n. rewrite !N.land_spec, !N.shiftr_spec'.
  destruct (N.ltb_spec n 40) as [Hn|Hn].
  - rewrite Hb; [reflexivity|]. rewrite N.lor_spec, mask_bit.
    replace (12 <=? n + 12) with true by (symmetry; apply N.leb_le; lia).
    replace (n + 12 <? 52) with true by (symmetry; apply N.ltb_lt; lia). reflexivity.
  - rewrite N.ones_spec_high by exact Hn. rewrite !andb_false_r. reflexivity.
Qed.

(** two states whose entries agree on what the walk looks at *)
Definition walk_eq (s s' : st) : Prop :=
  lo s' = lo s /\ cnt s' = cnt s /\
  forall f i, hw_P (ent s' f i) = hw_P (ent s f i) /\ hw_PS (ent s' f i) = hw_PS (ent s f i) /\
              hw_frame (ent s' f i) = hw_frame (ent s f i).

Lemma follow_walk_eq s s' t is : walk_eq s s' -> follow s' t is = follow s t is.
Proof.
  intros (Hlo & Hcnt & He). revert t. induction is as [|i r IH]; intros t; [reflexivity|]. cbn [follow].
  destruct (He t i) as (E1 & E2 & E3). unfold usable, backed. rewrite Hlo, Hcnt, E1, E2, E3.
  destruct ((lo s <=? t) && (t <? lo s + cnt s) && (hw_P (ent s t i) && negb (hw_PS (ent s t i)))); [apply IH | reflexivity].
Qed.

(** or-ing ignored bits into a present entry of an upper-level table (or of a root) *)
Theorem or_upper_neutral s A T own t p i x :
  Inv s A T own -> (own t = Some p /\ (length p < 3)%nat) \/ t = A ->
  let s' := wr_st s t i (N.lor (ent s t i) (N.land x safe_bits)) in
  Inv s' A T own /\ (forall q, hw_idx q 0 <> 511 -> aspace s' T q = aspace s T q).
Proof.
  intros HI Ht s'.
  pose proof (inv_wf _ _ _ _ HI) as W.
  assert (He: forall f j, ent s' f j = if (f =? t) && (j =? i) then N.lor (ent s t i) (N.land x safe_bits) else ent s f j).
  { intros. unfold s'. apply ent_wr. }
  assert (HW: walk_eq s s').
  { split; [reflexivity|]. split; [reflexivity|]. intros f j. rewrite He.
    destruct (N.eqb_spec f t) as [->|]; destruct (N.eqb_spec j i) as [->|]; cbn [andb]; try (repeat split; reflexivity).
    apply or_safe_bits. }
  destruct HW as (Hlo & Hcnt & Hb).
  assert (Hbk: forall f, backed s' f = backed s f) by reflexivity.
  assert (Hus: forall f j, usable (ent s' f j) = usable (ent s f j)).
  { intros f j. destruct (Hb f j) as (E1 & E2 & _). unfold usable. rewrite E1, E2. reflexivity. }
  split.
  - destruct HI as [[W1 W2 W3 W4 W5] Hcr HR HA HF]. split.
    + split; try assumption.
      * destruct (Hb T 511) as (_ & _ & E3). rewrite Hus, E3. exact W4.
      * intros f q j Ho Hl Hj Hne. destruct (Hb f j) as (E1 & E2 & E3). rewrite E1, E2, E3. exact (W5 f q j Ho Hl Hj Hne).
    + exact Hcr.
    + destruct HR as (R1 & R2 & R3 & R4 & R5 & R6). unfold Rec. rewrite !Hbk, !Hus.
      destruct (Hb A 511) as (_ & _ & EA). destruct (Hb T 511) as (_ & _ & ET). rewrite EA, ET. repeat split; assumption.
    + exact HA.
    + destruct HF as [F1 F2]. split; [exact F1 | exact F2].
  - intros q Hq. unfold aspace. rewrite (ixs_split q), !look_follow.
    rewrite (follow_walk_eq s s' T _ (conj Hlo (conj Hcnt Hb))).
    destruct (follow s T (firstn 3 (ixs q))) as [l|] eqn:Ef; [|reflexivity].
    rewrite Hbk. destruct (backed s l); [|reflexivity].
    assert (Ho: own l = Some (firstn 3 (ixs q))).
    { eapply leaf_table_own; eassumption. }
    rewrite He. destruct (N.eqb_spec l t) as [E|]; [|reflexivity]. exfalso.
    destruct Ht as [(Hp & Hl)|Hta].
    + rewrite E, Hp in Ho. inversion Ho as [E2]. rewrite E2 in Hl. cbn in Hl. lia.
    + destruct (inv_A _ _ _ _ HI) as [HA|HA].
      * rewrite E, Hta, HA, (wf_root _ _ _ W) in Ho. discriminate.
      * rewrite E, Hta, HA in Ho. discriminate.
Qed.
