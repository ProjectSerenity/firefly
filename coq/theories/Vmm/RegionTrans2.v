(** The hand-written models of vmm.MapRegion / vmm.IdentityMapRegion (Vmm/Region.v: [map_region],
    [identity_map_region]) ARE the Gallina translation that gen/gotrans (extended mode, "world" functions)
    regenerates from kernel/mm/vmm/map.go on every run (Gen/Trans_mm_vmm2.v).  EarlyReserveRegion itself and the
    page / frame conversions are tied in Vmm/RegionTrans.v.

    The two functions have no receiver; the translation threads a record [world] whose only field is the trace
    of the calls made through the package-level function variables [earlyReserveRegionFn] and [mapFn] (most
    recent first, [GCall name [GNum arg ..]]); what those calls return comes from oracles on the trace.
    The model makes the same calls: it reserves with [early_reserve] from a cursor [last] and lets the mapFn
    seam fail at call number [fail]; [o_reserve] and [o_map] are the oracles of exactly that environment. *)
From Coq Require Import NArith ZArith String List Bool Lia.
From Coq Require Import ZifyBool ZifyN ZifyNat.
From FF Require Import Lib.Word Lib.GoOps Lib.GoOpsExt Lib.GoOpsProofs Lib.GoCallLoop Gen.Consts_mm_vmm Gen.Trans_mm_vmm2.
From FF Require Import Vmm.Region Vmm.RegionProofs.
From FF Require Vmm.RegionTrans.
Import ListNotations.
Local Open Scope N_scope.

Notation W := mk_go_vmm_world (only parsing).

Definition ev_reserve (sz : N) : gcall := GCall "earlyReserveRegionFn" [GNum sz].
Definition ev_map (c : mapcall) : gcall := let '(p, f, fl) := c in GCall "mapFn" [GNum p; GNum f; GNum fl].

(** EarlyReserveRegion with the cursor at [last] *)
Definition o_reserve (last : N) (tr : list gcall) : N * option string :=
  match tr with
  | GCall _ [GNum s] :: _ =>
      match early_reserve last s with
      | (_, Some a) => (a, None)
      | (_, None) => (0, Some "errEarlyReserveNoSpace"%string)
      end
  | _ => (0, None)
  end.

(** a mapFn that fails at its call number [fail] (0-based), counted from a trace of length [base] *)
Definition o_map (fail : option N) (base : nat) (tr : list gcall) : option string :=
  match fail with
  | Some k => if N.of_nat (length tr) =? N.of_nat base + k + 1 then Some "errMap"%string else None
  | None => None
  end.

Lemma page_of_addr_trans a : a < two64 -> go_mm_PageFromAddress a = page_of_addr a.
Proof. intros Ha. exact (proj1 (RegionTrans.page_of_addr_is_translation a Ha)). Qed.

Lemma page_count_lt size : N.shiftr (round_up size) PageShift < two64.
Proof.
  rewrite N.shiftr_div_pow2, round_up_eq. pose proof (w64_lt (size + 4095)).
  change (2 ^ PageShift) with 4096. lia.
Qed.

Definition page_ev (page frame flags : N) (i : nat) : gcall :=
  ev_map (w64 (page + N.of_nat i), w64 (frame + N.of_nat i), flags).

Lemma o_map_at fail base c tr i :
  length tr = (base + i)%nat -> o_map fail base (c :: tr) = if fails_round fail i then Some "errMap"%string else None.
Proof.
  intros Hlen. unfold o_map, fails_round. cbn [length]. rewrite Hlen. destruct fail as [k|]; [|reflexivity].
  destruct (N.eqb_spec (N.of_nat (S (base + i))) (N.of_nat base + k + 1)); destruct (N.eqb_spec (N.of_nat i) k); try reflexivity; lia.
Qed.

Lemma gw64_succ a i : gw 64 (w64 (a + N.of_nat i) + 1) = w64 (a + N.of_nat (S i)).
Proof. change (gw 64) with w64. unfold w64, two64. rewrite N.add_mod_idemp_l by discriminate. f_equal. lia. Qed.

(** what a page loop of [count] rounds that starts with trace [tr] leaves, in the terms of [map_loop]: the calls the
    model makes on top of [tr], and whether it came to its end (then with [fin] of the trace) or returned the error *)
Lemma page_loop_res {A} (fin ret : list gcall -> A) page frame flags count fail tr :
  match first_failing (fails_round fail) 0 (N.to_nat count) with
  | Some j => ret (evs (page_ev page frame flags) 0 (S j) ++ tr)
  | None => fin (evs (page_ev page frame flags) 0 (N.to_nat count) ++ tr)
  end =
  let '(calls, ok) := map_loop page frame flags count fail in
  (if ok then fin else ret) (rev (map ev_map calls) ++ tr).
Proof. rewrite first_failing_all. unfold map_loop. rewrite map_map. reflexivity. Qed.

(** ---- MapRegion ---- *)
Definition no_space : option string := Some "errEarlyReserveNoSpace"%string.

Definition map_region_res (last size : N) (tr0 : list gcall) (r : N * list mapcall * option N)
  : gres (go_vmm_world * (N * option string)) :=
  let '(_, calls, res) := r in
  let sz := round_up size in
  GOk (W (rev (map ev_map calls) ++ (if sz <? size then [] else [ev_reserve sz]) ++ tr0),
       match res with
       | Some p => (p, None)
       | None => (0, if sz <? size then no_space
                     else match snd (early_reserve last sz) with None => no_space | Some _ => Some "errMap"%string end)
       end).

Theorem map_region_is_translation last frame size flags fail tr0 fuel :
  last < two64 -> frame < two64 -> size < two64 -> flags < two64 ->
  (N.to_nat (N.shiftr (round_up size) PageShift) < fuel)%nat ->
  go_vmm_MapRegion fuel (W tr0) frame size flags (o_reserve last) (o_map fail (S (length tr0))) =
  map_region_res last size tr0 (map_region last frame size flags fail).
Proof.
  intros Hl Hf Hs Hfl Hfuel.
  cbv delta [go_vmm_MapRegion map_region]. cbv beta zeta.
  rewrite (RegionTrans.round_up_trans size).
  set (sz := round_up size) in *.
  destruct (sz <? size) eqn:Ewrap.
  { unfold map_region_res. fold sz. rewrite Ewrap. reflexivity. }
  unfold set_f_world_trace; cbn [f_world_trace].
  unfold o_reserve at 1.
  destruct (early_reserve last sz) as [last' [start|]] eqn:Eres.
  2:{ cbv iota beta. cbn [gerr_eqb negb]. unfold map_region_res. fold sz. rewrite Ewrap, Eres. reflexivity. }
  cbv iota beta. cbn [gerr_eqb negb].
  assert (Hstart : start < two64).
  { unfold early_reserve in Eres. destruct (round_up sz <? sz); [discriminate|].
    destruct (last <? round_up sz); [discriminate|]. injection Eres as _ <-. lia. }
  rewrite (page_of_addr_trans start Hstart).
  set (page := page_of_addr start). change mm_PageShift with PageShift. set (count := N.shiftr sz PageShift) in *.
  pose proof (page_count_lt size) as Hc. fold sz count in Hc.
  match goal with |- context [gloop fuel ?f0 _] => set (step := f0) end.
  set (tr1 := GCall "earlyReserveRegionFn" [GNum sz] :: tr0).
  pose (st := fun (i : nat) tr => (W tr, w64 (frame + N.of_nat i), w64 (page + N.of_nat i), count - N.of_nat i)).
  replace (W tr1, frame, page, count) with (st 0%nat tr1)
    by (unfold st; cbn [N.of_nat]; rewrite !N.add_0_r, N.sub_0_r, (w64_small frame Hf), (w64_small page (page_of_addr_lt _ Hstart)); reflexivity).
  rewrite (gloop_calls step st (page_ev page frame flags) (fun t => (W t, (0, Some "errMap"%string))) (fails_round fail)
             (fun i tr => length tr = (S (length tr0) + i)%nat) (N.to_nat count))
    with (m := N.to_nat count); [| | | |reflexivity|unfold tr1; cbn [length]; lia|exact Hfuel].
  - unfold st. rewrite N2Nat.id, N.sub_diag.
    rewrite (page_loop_res (fun t => GOk (inl (W t, w64 (frame + count), w64 (page + count), 0))) (fun t => GOk (inr (W t, (0, Some "errMap"%string))))).
    unfold map_region_res. fold sz. rewrite Ewrap, Eres. cbn [snd]. fold page.
    destruct (map_loop page frame flags count fail) as [calls [|]]; reflexivity.
  - intros i tr Hlen. cbn [length]. lia.
  - intros tr. unfold st, step. rewrite N2Nat.id, N.sub_diag. reflexivity.
  - intros i tr Hi Hlen. unfold st, step. cbv beta iota zeta. unfold set_f_world_trace; cbn [f_world_trace].
    destruct (N.ltb_spec 0 (count - N.of_nat i)); [|lia].
    rewrite !(o_map_at fail _ _ tr i Hlen).
    destruct (fails_round fail i); cbn [gerr_eqb negb]; [reflexivity|].
    rewrite !gw64_succ, gsub64_small' by (try change (2 ^ 64) with two64; lia).
    replace (count - N.of_nat i - 1) with (count - N.of_nat (S i)) by lia. reflexivity.
Qed.

(** ---- IdentityMapRegion ---- *)
Definition id_region_res (size : N) (tr0 : list gcall) (r : list mapcall * option N)
  : gres (go_vmm_world * (N * option string)) :=
  let '(calls, res) := r in
  GOk (W (rev (map ev_map calls) ++ tr0),
       match res with
       | Some p => (p, None)
       | None => (0, if round_up size <? size then no_space else Some "errMap"%string)
       end).

Theorem identity_map_region_is_translation frame size flags fail tr0 fuel :
  frame < two64 -> size < two64 -> flags < two64 ->
  (N.to_nat (N.shiftr (round_up size) PageShift) < fuel)%nat ->
  go_vmm_IdentityMapRegion fuel (W tr0) frame size flags (o_map fail (length tr0)) =
  id_region_res size tr0 (identity_map_region frame size flags fail).
Proof.
  intros Hf Hs Hfl Hfuel.
  cbv delta [go_vmm_IdentityMapRegion identity_map_region]. cbv beta zeta.
  rewrite (RegionTrans.round_up_trans size).
  set (sz := round_up size) in *.
  destruct (sz <? size) eqn:Ewrap.
  { unfold id_region_res. fold sz. rewrite Ewrap. reflexivity. }
  rewrite (gw64_small frame Hf).
  change mm_PageShift with PageShift. set (count := N.shiftr sz PageShift) in *.
  pose proof (page_count_lt size) as Hc. fold sz count in Hc.
  rewrite (gw64_small count Hc). change (gw 64 (frame + count)) with (w64 (frame + count)).
  set (stop := w64 (frame + count)).
  set (n := if frame <? stop then stop - frame else 0).
  assert (Hstop : stop < two64) by apply w64_lt.
  assert (Hn : n <= count /\ (n = 0 \/ frame + n = stop)).
  { unfold n, stop, w64, two64 in *. destruct (N.ltb_spec frame ((frame + count) mod 18446744073709551616)); lia. }
  match goal with |- context [gloop fuel ?f0 _] => set (step := f0) end.
  pose (st := fun (i : nat) tr => (W tr, frame + N.of_nat i)).
  replace (W tr0, frame) with (st 0%nat tr0) by (unfold st; cbn [N.of_nat]; rewrite N.add_0_r; reflexivity).
  rewrite (gloop_calls step st (page_ev frame frame flags) (fun t => (W t, (0, Some "errMap"%string))) (fails_round fail)
             (fun i tr => length tr = (length tr0 + i)%nat) (N.to_nat n))
    with (m := N.to_nat n); [| | | |reflexivity|cbn [length]; lia|lia].
  - unfold st. rewrite N2Nat.id.
    rewrite (page_loop_res (fun t => GOk (inl (W t, frame + n))) (fun t => GOk (inr (W t, (0, Some "errMap"%string))))).
    unfold id_region_res. fold sz. rewrite Ewrap.
    destruct (map_loop frame frame flags n fail) as [calls [|]]; reflexivity.
  - intros i tr Hlen. cbn [length]. lia.
  - intros tr. unfold st, step. rewrite N2Nat.id.
    destruct (N.ltb_spec (frame + n) stop) as [A|A]; [|reflexivity].
    exfalso. unfold n in *. destruct (N.ltb_spec frame stop); lia.
  - intros i tr Hi Hlen. unfold st, step. cbv beta iota zeta. unfold set_f_world_trace; cbn [f_world_trace].
    destruct (N.ltb_spec (frame + N.of_nat i) stop); [|lia].
    rewrite (gw64_small (frame + N.of_nat i)) by lia.
    rewrite !(o_map_at fail _ _ tr i Hlen).
    unfold page_ev, ev_map. rewrite (w64_small (frame + N.of_nat i)) by lia.
    destruct (fails_round fail i); cbn [gerr_eqb negb]; [reflexivity|].
    rewrite gw64_small by lia. replace (frame + N.of_nat i + 1) with (frame + N.of_nat (S i)) by lia. reflexivity.
Qed.
