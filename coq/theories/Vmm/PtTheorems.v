(** C04: the per-operation theorems over the address space the software MMU sees. *)
From Coq Require Import NArith ZArith Lia List Bool.
From Coq Require Import ZifyBool ZifyN ZifyNat.
From FF Require Import Lib.Word Gen.Consts_mm_vmm Vmm.Region Vmm.Pt Vmm.PtMem Vmm.PtArith Vmm.PtTree Vmm.PtMap Vmm.PtOps.
Import ListNotations.
Local Open Scope N_scope.

Lemma translation_lookP s T q :
  translation s T q = match lookP s T (ixs q) with
                      | Some e => Some (hw_frame e, N.ldiff e vmm_ptePhysPageMask)
                      | None => None
                      end.
Proof.
  unfold translation, aspace, lookP. destruct (look s T (ixs q)) as [e|]; [|reflexivity].
  destruct (hw_P e); reflexivity.
Qed.

(** same page (modulo the bits the walk ignores) *)
Definition same_page (p q : N) : Prop := ixs p = ixs q.

(** * The Go walk's entry addresses, as the code computes them *)
Fixpoint go_entry_addr (lv : list (N * N)) (tableAddr va : N) (k : nat) : N :=
  match lv with
  | [] => 0
  | (sh, bits) :: rest =>
      let ea := entry_addr tableAddr va sh bits in
      match k with O => ea | S k' => go_entry_addr rest (shl64 ea bits) va k' end
  end.

(** [walk]'s level-k entry address for [va] *)
Definition walk_entry_addr (va : N) (k : nat) : N := go_entry_addr go_levels vmm_pdtVirtualAddr va k.

Lemma walk_entry_addr_win va k :
  (k <= 3)%nat ->
  walk_entry_addr va k = add64 (wwin (firstn k (ixs (N.shiftr va 12)))) (shl64 (nth k (ixs (N.shiftr va 12)) 0) 3).
Proof.
  intros Hk. unfold walk_entry_addr. rewrite go_levels_val, <- wwin_nil.
  destruct (entry_index_hw va) as (E0 & E1 & E2 & E3).
  set (pg := N.shiftr va 12) in *.
  pose proof (hw_idx_lt pg 0) as H0. pose proof (hw_idx_lt pg 1) as H1. pose proof (hw_idx_lt pg 2) as H2.
  assert (N0: shl64 (entry_addr (wwin []) va 39 9) 9 = wwin [hw_idx pg 0]).
  { unfold entry_addr. rewrite pointer_shift_val, E0. apply (wwin_next [] (hw_idx pg 0)); [cbn; lia | constructor | exact H0]. }
  assert (N1: shl64 (entry_addr (wwin [hw_idx pg 0]) va 30 9) 9 = wwin [hw_idx pg 0; hw_idx pg 1]).
  { unfold entry_addr. rewrite pointer_shift_val, E1. apply (wwin_next [hw_idx pg 0] (hw_idx pg 1)); [cbn; lia | repeat constructor; assumption | exact H1]. }
  assert (N2: shl64 (entry_addr (wwin [hw_idx pg 0; hw_idx pg 1]) va 21 9) 9 = wwin [hw_idx pg 0; hw_idx pg 1; hw_idx pg 2]).
  { unfold entry_addr. rewrite pointer_shift_val, E2. apply (wwin_next [hw_idx pg 0; hw_idx pg 1] (hw_idx pg 2)); [cbn; lia | repeat constructor; assumption | exact H2]. }
  destruct k as [|[|[|[|k]]]]; try lia; cbn [go_entry_addr firstn nth ixs].
  - unfold entry_addr. rewrite pointer_shift_val, E0. reflexivity.
  - rewrite N0. unfold entry_addr. rewrite pointer_shift_val, E1. reflexivity.
  - rewrite N0, N1. unfold entry_addr. rewrite pointer_shift_val, E2. reflexivity.
  - rewrite N0, N1, N2. unfold entry_addr. rewrite pointer_shift_val, E3. reflexivity.
Qed.

(** [recursive_entry]: with the recursive slot of the active root [A] pointing at root [T] (whose own
    slot 511 points at itself), the level-k entry address the walk computes for [va] resolves, through
    the MMU, to entry index_k(va) of the level-k table on [va]'s path in [T]'s tree. *)
Theorem recursive_entry s A T va k t :
  N.shiftr (cr3 s) 12 = A -> Rec s A T -> (k <= 3)%nat ->
  follow s T (firstn k (ixs (N.shiftr va 12))) = Some t -> backed s t = true ->
  resolve s (walk_entry_addr va k) = Some (t, nth k (ixs (N.shiftr va 12)) 0).
Proof.
  intros Hcr HR Hk Hf Hb. rewrite walk_entry_addr_win by exact Hk.
  eapply resolve_entry; try eassumption.
  - rewrite firstn_length, ixs_length. lia.
  - apply Forall_forall. intros x Hx. apply in_firstn in Hx.
    apply (proj1 (Forall_forall _ _) (ixs_lt (N.shiftr va 12))). exact Hx.
  - apply (proj1 (Forall_forall _ _) (ixs_lt (N.shiftr va 12))). apply nth_In. rewrite ixs_length. lia.
Qed.

(** * Map *)
Lemma lookP_ixs_other s s' T pre_unused q page :
  (forall is', length is' = 4%nat -> Forall (fun x => x < 512) is' -> hd 0 is' <> 511 ->
               (pre_unused = true -> is' <> ixs page) -> lookP s' T is' = lookP s T is') ->
  hw_idx q 0 <> 511 -> (pre_unused = true -> ixs q <> ixs page) -> lookP s' T (ixs q) = lookP s T (ixs q).
Proof.
  intros H H511 Hne. apply H; [reflexivity | apply ixs_lt | exact H511 | exact Hne].
Qed.

Theorem map_ok s A T own page frame flags :
  Inv s A T own -> hw_idx page 0 <> 511 -> zero_guard s frame flags = false ->
  exists s' err own',
    map_page page frame flags s = Ok (s', err) /\ Inv s' A T own' /\ same_env s s' /\
    (err = 0 \/ err = E_ALLOC) /\
    (err = 0 ->
       aspace s' T page = Some (set_flags (set_frame 0 frame) flags) /\
       (forall q, hw_idx q 0 <> 511 -> ~ same_page q page -> translation s' T q = translation s T q) /\
       flog s' = frame_addr page :: flog s) /\
    (err <> 0 ->
       (forall q, hw_idx q 0 <> 511 -> translation s' T q = translation s T q) /\ flog s' = flog s) /\
    (* frames that are not page tables of this space are untouched *)
    (forall f i, own' f = None -> ent s' f i = ent s f i) /\
    (* every newly created table is empty except for the entry on the page's path *)
    (forall f q i, own f = None -> own' f = Some q -> ent s' f i <> 0 -> exists j, q ++ [i] = firstn j (ixs page)) /\
    (* new tables come from the allocator, in order *)
    (exists n, orc s' = skipn n (orc s) /\
               forall f, own' f = own f \/ (own f = None /\ In f (firstn n (orc s)) /\ f <> 0)) /\
    (* entries of existing tables off the page's path are untouched, so are present upper-level entries *)
    (forall f p i, own f = Some p -> p ++ [i] <> firstn (S (length p)) (ixs page) -> ent s' f i = ent s f i) /\
    (forall f p i, own f = Some p -> (length p < 3)%nat -> hw_P (ent s f i) = true -> ent s' f i = ent s f i) /\
    (* at most three frames are taken; with three usable frames at the head of the oracle Map succeeds *)
    (length (orc s) <= length (orc s') + 3)%nat /\
    ((3 <= length (orc s))%nat -> Forall (fun x => x <> 0) (firstn 3 (orc s)) -> err = 0).
Proof.
  intros HI H511 Hg.
  destruct (map_page_spec A T page frame flags s own HI H511 Hg) as (s' & err & own' & Hrun & HQ).
  destruct HQ as (QI & Qenv & Qerr & (n & Qn & Qnb & Qown) & Qfr & Qt & Qlook & Qoth & Qf1 & Qf2 & Qnew & Qoff & Qpres & Qen).
  exists s', err, own'. split; [exact Hrun|]. split; [exact QI|]. split; [exact Qenv|]. split; [exact Qerr|].
  split.
  { intros He0. split; [exact (Qlook He0)|]. split; [|exact (Qf1 He0)].
    intros q Hq Hne. rewrite !translation_lookP.
    rewrite (Qoth (ixs q)); [reflexivity | reflexivity | apply ixs_lt | exact Hq |].
    intros _ E. apply Hne. exact E. }
  split.
  { intros Hne0. split; [|exact (Qf2 Hne0)].
    intros q Hq. rewrite !translation_lookP.
    rewrite (Qoth (ixs q)); [reflexivity | reflexivity | apply ixs_lt | exact Hq |].
    intros E0. congruence. }
  split.
  { intros f i Hn. apply Qfr. rewrite Hn. cbn. tauto. }
  split; [exact Qnew|].
  split.
  { exists n. split; [exact Qn|]. intros f. destruct (Qown f) as [E | (E1 & E2 & E3 & _)]; [left; exact E | right; repeat split; assumption]. }
  split; [exact Qoff|]. split; [exact Qpres|].
  split; [rewrite Qn, skipn_length; cbn [length] in Qnb; lia | exact Qen].
Qed.

(** the leaf entry is exactly frame<<12 | flags, and reads back as (frame, flags) *)
Lemma leaf_exact frame flags :
  frame < 2 ^ 40 -> N.land flags vmm_ptePhysPageMask = 0 ->
  set_flags (set_frame 0 frame) flags = N.lor (N.shiftl frame 12) flags /\
  hw_frame (set_flags (set_frame 0 frame) flags) = frame /\
  N.ldiff (set_flags (set_frame 0 frame) flags) vmm_ptePhysPageMask = flags /\
  hw_P (set_flags (set_frame 0 frame) flags) = N.testbit flags 0.
Proof.
  intros Hf Hfl.
  assert (H52: frame < 2 ^ 52) by (change (2 ^ 40) with 1099511627776 in Hf; change (2 ^ 52) with 4503599627370496; lia).
  split; [apply mk_entry_val; exact H52|]. split; [apply mk_entry_frame; assumption|]. split; [|apply mk_entry_P; exact H52].
  rewrite mk_entry_val by exact H52.
  apply N.bits_inj. intros n. rewrite N.ldiff_spec, N.lor_spec.
  assert (Hm: N.testbit vmm_ptePhysPageMask n = (12 <=? n) && (n <? 52)).
  { rewrite phys_mask_val. destruct (N.leb_spec 12 n) as [H|H].
    - rewrite N.shiftl_spec_high' by exact H. cbn [andb].
      destruct (N.ltb_spec n 52) as [H2|H2]; [rewrite N.ones_spec_low by lia | rewrite N.ones_spec_high by lia]; reflexivity.
    - rewrite N.shiftl_spec_low by exact H. reflexivity. }
  assert (Hfb: N.testbit flags n && N.testbit vmm_ptePhysPageMask n = false).
  { apply (f_equal (fun x => N.testbit x n)) in Hfl. rewrite N.land_spec, N.bits_0 in Hfl. exact Hfl. }
  rewrite Hm in *.
  destruct (N.leb_spec 12 n) as [H|H]; cbn [andb] in *.
  - destruct (N.ltb_spec n 52) as [H2|H2]; cbn [negb andb] in *.
    + rewrite andb_false_r. rewrite andb_true_r in Hfb. rewrite Hfb. reflexivity.
    + rewrite andb_true_r. rewrite N.shiftl_spec_high' by exact H.
      replace (N.testbit frame (n - 12)) with false; [reflexivity|].
      symmetry. apply (testbit_above frame 40 _ Hf). lia.
  - rewrite N.shiftl_spec_low by exact H. rewrite andb_true_r. reflexivity.
Qed.

(** * Unmap *)
Lemma clear_present_P e : hw_P (clear_flags e vmm_FlagPresent) = false.
Proof.
  unfold hw_P, clear_flags, andnot. rewrite flag_present_val, N.ldiff_spec. cbn. apply andb_false_r.
Qed.

Lemma aspace_follow s T page :
  aspace s T page = match follow s T (firstn 3 (ixs page)) with
                    | Some l => if backed s l then Some (ent s l (hw_idx page 3)) else None
                    | None => None
                    end.
Proof. unfold aspace. rewrite ixs_split at 1. apply look_follow. Qed.

Lemma ixs_eq_split p q : ixs p <> ixs q -> firstn 3 (ixs p) ++ [hw_idx p 3] <> firstn 3 (ixs q) ++ [hw_idx q 3].
Proof. intros H. rewrite <- !ixs_split. exact H. Qed.

Theorem unmap_ok s A T own page :
  Inv s A T own -> hw_idx page 0 <> 511 ->
  exists s' err,
    unmap_page page s = Ok (s', err) /\ (err = 0 \/ err = E_INVALID) /\ Inv s' A T own /\ same_env s s' /\ orc s' = orc s /\
    (err = E_INVALID -> s' = s /\ aspace s T page = None) /\
    (err = 0 ->
       exists e, aspace s T page = Some e /\ aspace s' T page = Some (clear_flags e vmm_FlagPresent) /\
                 translation s' T page = None /\
                 (forall q, hw_idx q 0 <> 511 -> ~ same_page q page -> aspace s' T q = aspace s T q) /\
                 flog s' = frame_addr page :: flog s /\
                 (forall f i, own f = None -> ent s' f i = ent s f i) /\
                 (forall f p i, own f = Some p -> p ++ [i] <> ixs page -> ent s' f i = ent s f i)).
Proof.
  intros HI H511. unfold unmap_page.
  rewrite (unmap_walk_spec A T page (frame_addr page) (frame_addr_idx page) s own HI H511).
  rewrite (unmap_res_top (frame_addr page) s A T own page HI H511).
  pose proof (inv_wf _ _ _ _ HI) as W.
  destruct (follow s T (firstn 3 (ixs page))) as [l|] eqn:Ef.
  - set (e := ent s l (hw_idx page 3)).
    assert (Hhd: hd 0 (firstn 3 (ixs page)) <> 511) by exact H511.
    destruct (leaf_write s A T own l (firstn 3 (ixs page)) (hw_idx page 3) (clear_flags e vmm_FlagPresent) (frame_addr page)
                HI Ef eq_refl (firstn3_lt page) Hhd) as (L1 & L2 & L3 & L4 & L5 & L6 & L7 & L8 & L9).
    eexists _, E_OK. split; [reflexivity|]. split; [left; reflexivity|]. split; [exact L1|]. split; [exact L2|]. split; [exact L3|].
    split; [intros H; discriminate|]. intros _.
    destruct (wf_owned _ _ _ W l _ L7) as (Hb & _).
    exists e. split; [rewrite aspace_follow, Ef, Hb; reflexivity|].
    split; [unfold aspace; rewrite ixs_split at 1; exact L8|].
    split.
    { unfold translation, aspace. rewrite ixs_split at 1. rewrite L8, clear_present_P. reflexivity. }
    split.
    { intros q Hq Hne. unfold aspace. rewrite (ixs_split q). apply L9; try reflexivity.
      - apply firstn3_lt.
      - exact Hq.
      - apply ixs_eq_split. exact Hne. }
    split; [exact L4|].
    split.
    { intros f i Hn. apply L5. left. intros E. rewrite E, L7 in Hn. discriminate. }
    intros f p i Hp Hne. apply L5.
    destruct (N.eq_dec f l) as [Efl|]; [|left; assumption]. right. intros Ei. apply Hne.
    rewrite Efl, L7 in Hp. inversion Hp as [Ep]. rewrite Ei. symmetry. apply ixs_split.
  - exists s, E_INVALID. split; [reflexivity|]. split; [right; reflexivity|]. split; [exact HI|].
    split; [apply same_env_refl|]. split; [reflexivity|].
    split; [|intros H; discriminate].
    intros _. split; [reflexivity|]. rewrite aspace_follow, Ef. reflexivity.
Qed.

(** * Translate *)
Lemma page_offset_val va : page_offset va = va mod 4096.
Proof.
  unfold page_offset. change (N.shiftl 1 (nth (N.to_nat (vmm_pageLevels - 1)) vmm_pageLevelShifts 0) - 1) with (N.ones 12).
  apply N.land_ones.
Qed.

Theorem translate_ok s A T own va :
  Inv s A T own -> hw_idx (N.shiftr va 12) 0 <> 511 ->
  translate va s = Ok (match translation s T (N.shiftr va 12) with
                       | Some (f, _) => (E_OK, f * 4096 + va mod 4096)
                       | None => (E_INVALID, 0)
                       end).
Proof.
  intros HI H511. unfold translate.
  rewrite (pte_walk_spec A T (N.shiftr va 12) va (fun k _ => eq_refl) s own HI H511).
  rewrite (dloc_top s A T own _ HI H511).
  unfold translation. rewrite aspace_follow.
  pose proof (inv_wf _ _ _ _ HI) as W.
  destruct (follow s T (firstn 3 (ixs (N.shiftr va 12)))) as [l|] eqn:Ef; [|reflexivity].
  assert (Ho: own l = Some (firstn 3 (ixs (N.shiftr va 12)))).
  { eapply leaf_table_own; eassumption. }
  destruct (wf_owned _ _ _ W l _ Ho) as (Hb & _). rewrite Hb.
  fold (ent s l (hw_idx (N.shiftr va 12) 3)).
  destruct (hw_P (ent s l (hw_idx (N.shiftr va 12) 3))); [|reflexivity].
  fold (ent s l (hw_idx (N.shiftr va 12) 3)). rewrite pte_frame_hw, page_offset_val.
  set (e := ent s l (hw_idx (N.shiftr va 12) 3)).
  pose proof (hw_frame_lt e) as Hlt. change (2 ^ 40) with 1099511627776 in Hlt.
  rewrite frame_addr_small by (change (2 ^ 52) with 4503599627370496; lia).
  rewrite N.shiftl_mul_pow2. change (2 ^ 12) with 4096.
  unfold add64. rewrite w64_small by (unfold two64; lia). reflexivity.
Qed.
