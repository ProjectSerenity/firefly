(** The side conditions of the translation ties (Vmm/MapTrans.v [map_stable], Vmm/PdtTrans.v [init_stable],
    Vmm/FaultTrans.v [fault_stable]) hold on the whole domain of the C04 / C06 theorems: a well-formed page-table
    hierarchy ([Inv]: the tables form a tree with ghost ownership, the recursive slot is in place, allocator frames are
    fresh), the page outside the recursive window (top-level index <> 511), Init of a frame no tree uses, a fault on a
    page that shows a data frame.  The reason is always the same: the hardware walk that resolves the window address of
    an entry of table [t] goes through the recursive slot and the tables ABOVE [t] only, never through the entry that
    is being rewritten.  The walks go level by level through the lemmas of Vmm/PtMap.v ([descend_step], [level_alloc],
    [four_levels]). *)
From Coq Require Import NArith ZArith Lia List Bool.
From Coq Require Import ZifyBool ZifyN ZifyNat.
From FF Require Import Lib.Word Lib.GoOps Gen.Consts_mm_vmm Vmm.Region Vmm.Pt Vmm.PtMem Vmm.PtArith Vmm.PtTree Vmm.PtMap Vmm.PtAccess.
From FF Require Vmm.PtTemp Vmm.PtCow.
From FF Require Vmm.MapTrans Vmm.PdtTrans.
Module M := FF.Vmm.MapTrans.
Module P := FF.Vmm.PdtTrans.
Import ListNotations.
Local Open Scope N_scope.

(** in a well-formed hierarchy an entry off the recursive slot is still found at its window address after it has been
    overwritten with anything *)
Lemma entry_stable_inv s A T own pre t i :
  Inv s A T own -> follow s T pre = Some t -> own t = Some pre -> (length pre <= 3)%nat ->
  Forall (fun x => x < 512) pre -> i < 512 -> hd 0 (pre ++ [i]) <> 511 ->
  M.entry_stable s (add64 (wwin pre) (shl64 i 3)) t i.
Proof.
  intros HI Hf Ho Hl Hlt Hi Hhd x.
  pose proof (inv_wf _ _ _ _ HI) as W.
  destruct (snoc_off_rec pre i Hhd) as [Hne Hhd0].
  set (s' := wr_st s t i x).
  assert (Hbk : forall f, backed s' f = backed s f) by reflexivity.
  assert (Hroot : forall r, (r = A \/ r = T) -> ent s' r 511 = ent s r 511).
  { intros r Hr. unfold s'. rewrite ent_wr.
    destruct (N.eqb_spec r t) as [Ert|]; [|reflexivity].
    destruct (N.eqb_spec 511 i) as [E5|]; [|reflexivity]. exfalso.
    assert (Hpre : pre = []).
    { destruct Hr as [Hr|Hr].
      - destruct (inv_A _ _ _ _ HI) as [HA|HA].
        + rewrite <- Ert, Hr, HA, (wf_root _ _ _ W) in Ho. inversion Ho. reflexivity.
        + rewrite <- Ert, Hr, HA in Ho. discriminate.
      - rewrite <- Ert, Hr, (wf_root _ _ _ W) in Ho. inversion Ho. reflexivity. }
    apply Hne. rewrite Hpre, <- E5. reflexivity. }
  assert (HR : Rec s' A T).
  { destruct (inv_rec _ _ _ _ HI) as (R1 & R2 & R3 & R4 & R5 & R6). unfold Rec.
    rewrite !Hbk, (Hroot A) by (left; reflexivity). rewrite (Hroot T) by (right; reflexivity). repeat split; assumption. }
  assert (Hf' : follow s' T pre = Some t).
  { rewrite <- Hf. eapply (follow_frame s s' T own T []); try eassumption; try reflexivity.
    - exact (wf_root _ _ _ W).
    - intros f q j Hq _ Hlq. unfold s'. rewrite ent_wr.
      destruct (N.eqb_spec f t) as [E|]; [|reflexivity]. rewrite E, Ho in Hq. inversion Hq as [E2]. rewrite <- E2 in Hlq.
      cbn [length] in Hlq. lia. }
  destruct (wf_owned _ _ _ W t pre Ho) as (Hb & _).
  eapply (resolve_entry s' A T pre t i); try eassumption.
  exact (inv_cr3 _ _ _ _ HI).
Qed.

Section Level.
  Variables (A T pg va : N).
  Hypothesis Hva : forall k, k <= 3 -> hw_idx (N.shiftr va 12) k = hw_idx pg k.

  Lemma map_stable_leaf pre s own t :
    length pre = 3%nat -> Pre A T pg pre s own t -> M.map_stable [(12, 9)] 3 (wwin pre) va s.
  Proof.
    intros Hl HP.
    destruct (pre_table A T pg pre s own t HP ltac:(lia)) as (Ho & Hb & Hlt & Hix & Hhd & Hsn).
    destruct HP as (HI & Hf & Hp & H511).
    rewrite Hl in Hix, Hhd, Hsn.
    assert (Hix3: ix pg 3 = hw_idx pg 3) by reflexivity.
    assert (Hea : entry_addr (wwin pre) va 12 9 = add64 (wwin pre) (shl64 (ix pg 3) 3)).
    { unfold entry_addr. rewrite pointer_shift_val.
      destruct (entry_index_hw va) as (_ & _ & _ & E3). rewrite E3, Hva by lia. reflexivity. }
    assert (Hst : M.entry_stable s (entry_addr (wwin pre) va 12 9) t (ix pg 3)).
    { rewrite Hea. eapply entry_stable_inv; try eassumption. lia. }
    cbn [M.map_stable].
    destruct (resolve s (entry_addr (wwin pre) va 12 9)) as [[f i]|] eqn:Er; [|exact I].
    assert (Hres: resolve s (entry_addr (wwin pre) va 12 9) = Some (t, ix pg 3)).
    { rewrite Hea. eapply resolve_entry; try eassumption.
      - exact (inv_cr3 _ _ _ _ HI).
      - exact (inv_rec _ _ _ _ HI).
      - lia. }
    rewrite Hres in Er. injection Er as <- <-.
    change (3 =? last_level) with true. cbv iota. exact Hst.
  Qed.

  Lemma map_stable_level pre sh rest :
    (length pre <= 2)%nat ->
    entry_index va sh 9 = ix pg (length pre) ->
    level_bits (N.of_nat (length pre) + 1) = 9 ->
    (N.of_nat (length pre) =? last_level) = false ->
    (forall s own t, Pre A T pg (pre ++ [ix pg (length pre)]) s own t ->
       M.map_stable rest (N.of_nat (length pre) + 1) (wwin (pre ++ [ix pg (length pre)])) va s) ->
    forall s own t, Pre A T pg pre s own t ->
      M.map_stable ((sh, 9) :: rest) (N.of_nat (length pre)) (wwin pre) va s.
  Proof.
    intros Hl Hidx Hbits Hlast IH s own t HP.
    destruct (pre_table A T pg pre s own t HP ltac:(lia)) as (Ho & Hb & Hlt & Hix & Hhd & Hsn).
    destruct (descend_step A T pg va pre sh s own t Hl Hidx HP) as (Hres & Hnext & HPS & _ & Hdown).
    pose proof HP as (HI & Hf & Hp & H511).
    set (i := ix pg (length pre)) in *.
    cbn [M.map_stable]. rewrite Hres, Hlast. fold (ent s t i).
    rewrite has_huge_hw, HPS, has_present_hw. cbv iota.
    destruct (hw_P (ent s t i)) eqn:HPres; cbn [negb].
    - rewrite Hnext. exact (IH s own _ (Hdown eq_refl)).
    - unfold alloc. destruct (orc s) as [|nf r] eqn:Eo; [exact I|].
      destruct (N.eqb_spec nf 0) as [Hx0|Hx0]; [exact I|].
      destruct (level_alloc A T pg pre s own t nf r Hl HP HPres Eo Hx0) as (_ & _ & _ & _ & _ & Hrp & _ & HP3).
      split.
      { assert (Hea : entry_addr (wwin pre) va sh 9 = add64 (wwin pre) (shl64 i 3)).
        { unfold entry_addr. rewrite pointer_shift_val, Hidx. reflexivity. }
        rewrite Hea.
        assert (Hl3 : (length pre <= 3)%nat) by lia.
        assert (Hf1 : follow (set_orc s r) T pre = Some t).
        { rewrite <- Hf. apply follow_ext; reflexivity. }
        exact (entry_stable_inv (set_orc s r) A T own pre t i (Inv_pop s A T own nf r HI Eo) Hf1 Ho Hl3 Hlt Hix Hhd). }
      rewrite Hbits, Hnext. fold i in Hrp, HP3. rewrite Hrp. exact (IH _ _ nf HP3).
  Qed.
End Level.

Lemma map_stable_walk A T pg va s own :
  (forall k, k <= 3 -> hw_idx (N.shiftr va 12) k = hw_idx pg k) ->
  Inv s A T own -> hw_idx pg 0 <> 511 ->
  M.map_stable go_levels 0 vmm_pdtVirtualAddr va s.
Proof.
  intros Hva HI H511. rewrite <- wwin_nil.
  apply (four_levels pg va Hva (fun levels lvl _ pre => forall s0 own0 t0, Pre A T pg pre s0 own0 t0 ->
            M.map_stable levels lvl (wwin pre) va s0)) with (own0 := own) (t0 := T).
  - intros pre sh rest. exact (map_stable_level A T pg va Hva pre sh rest).
  - intros s0 own0 t0 HP0. exact (map_stable_leaf A T pg va Hva [ix pg 0; ix pg 1; ix pg 2] s0 own0 t0 eq_refl HP0).
  - split; [exact HI|]. split; [reflexivity|]. split; [reflexivity | exact H511].
Qed.

Theorem map_stable_inv A T page s own :
  Inv s A T own -> hw_idx page 0 <> 511 ->
  M.map_stable go_levels 0 vmm_pdtVirtualAddr (frame_addr page) s.
Proof. intros HI H. eapply map_stable_walk; try eassumption. apply frame_addr_idx. Qed.

(** ---- Init: the walk of a page of a well-formed hierarchy only goes through owned tables ---- *)
Lemma walk_avoids_wf s T own x page :
  WF s T own -> own x = None ->
  forall levels t p, own t = Some p -> (length p + length levels <= 4)%nat ->
    hd 0 (p ++ map (hw_idx page) levels) <> 511 ->
    P.walk_avoids s levels t page x = true.
Proof.
  intros W Hx. induction levels as [|k rest IH]; intros t p Ho Hlen Hhd; [reflexivity|].
  cbn [P.walk_avoids].
  assert (Htx : (t =? x) = false) by (apply N.eqb_neq; intros E; rewrite E, Hx in Ho; discriminate).
  rewrite Htx. cbn [negb andb].
  destruct (backed s t); [|reflexivity].
  fold (ent s t (hw_idx page k)).
  destruct (hw_P (ent s t (hw_idx page k)) && negb (hw_PS (ent s t (hw_idx page k)) && (k <? 3))) eqn:Ec; [|reflexivity].
  destruct rest as [|k2 rest2]; [reflexivity|].
  apply andb_prop in Ec. destruct Ec as [HP _].
  cbn [length map] in *.
  assert (Hne : p ++ [hw_idx page k] <> [511]).
  { intros E. destruct p as [|a p']; cbn in *.
    - inversion E as [E1]. apply Hhd. exact E1.
    - inversion E as [[E1 E2]]. destruct p'; discriminate. }
  destruct (wf_child s T own W t p (hw_idx page k) Ho ltac:(lia) (hw_idx_lt page k) Hne) as [_ Hc].
  apply (IH _ (p ++ [hw_idx page k]) (Hc HP)).
  - rewrite app_length. cbn [length]. lia.
  - rewrite <- app_assoc. exact Hhd.
Qed.

Lemma path_avoids_wf s A own x va :
  WF s A own -> N.shiftr (cr3 s) 12 = A -> hw_idx (N.shiftr va 12) 0 <> 511 -> own x = None ->
  P.path_avoids s va x = true.
Proof.
  intros W Hcr H511 Hx. unfold P.path_avoids. rewrite Hcr.
  apply (walk_avoids_wf s A own x _ W Hx hw_levels A []).
  - exact (wf_root _ _ _ W).
  - cbn. lia.
  - cbn. exact H511.
Qed.

Theorem init_stable_inv s A own slot F :
  Inv s A A own -> (prot s && (F =? zf s)) = false -> backed s F = true -> own F = None -> ~ In F (orc s) ->
  P.init_stable F (set_pdt s slot F).
Proof.
  intros HI Hg HbF HoF HnF s1' pf Hmt Hrp.
  set (s0 := set_pdt s slot F) in *.
  assert (HI0: Inv s0 A A own) by (apply (Inv_ent_eq s s0 A A own HI); reflexivity).
  destruct (PtTemp.temp_map_spec s0 A own F HI0 Hg HbF HoF HnF) as
      (s1 & err & pg & own1 & Hrun & _ & HI1 & _ & Ho1F & _ & _ & _ & Hok & _).
  rewrite Hmt in Hrun. injection Hrun as <- <- <-.
  destruct (Hok eq_refl) as (_ & Hrp1 & _).
  rewrite Hrp in Hrp1. injection Hrp1 as ->.
  apply (path_avoids_wf s1' A own1 F _ (inv_wf _ _ _ _ HI1) (inv_cr3 _ _ _ _ HI1)); [|exact Ho1F].
  rewrite frame_addr_idx by lia. exact PtCow.temp_idx0.
Qed.

(** ---- the ties on the whole domain ---- *)
From FF Require Gen.Trans_vmm_map Gen.Trans_vmm_pdt.

Theorem map_is_translation_inv s A T own page frame flags tr0 :
  Inv s A T own -> hw_idx page 0 <> 511 -> flags < two64 -> P.mem_w64 s ->
  M.wmem (Trans_vmm_map.go_vmm_Map (Trans_vmm_map.mk_go_vmm_world tr0 s) page frame flags P.o_flush P.o_memset M.o_alloc M.o_id)
  = M.op_res (map_page page frame flags s).
Proof.
  intros HI H511 Hfl Hw. apply M.map_is_translation; try assumption. eapply map_stable_inv; eassumption.
Qed.

Theorem map_temporary_is_translation_inv s A T own frame tr0 :
  Inv s A T own -> P.mem_w64 s ->
  M.wmem (Trans_vmm_map.go_vmm_MapTemporary (Trans_vmm_map.mk_go_vmm_world tr0 s) frame P.o_flush P.o_memset M.o_alloc M.o_id) =
  match map_temporary frame s with
  | Stray => GPanic
  | Ok (s', e, p) => GOk (s', (p, P.err_of e))
  end.
Proof.
  intros HI Hw. apply M.map_temporary_is_translation; try assumption.
  eapply map_stable_inv; [exact HI | exact PtCow.temp_idx0].
Qed.

Theorem pdt_init_is_translation_inv s A own slot F tr0 pdt0 :
  Inv s A A own -> (prot s && (F =? zf s)) = false -> backed s F = true -> own F = None -> ~ In F (orc s) ->
  Trans_vmm_pdt.go_vmm_PageDirectoryTable_Init (Trans_vmm_pdt.mk_go_vmm_world tr0 (set_pdt s slot F)) pdt0 F
    P.o_active P.o_memset P.o_maptemp P.o_unmap =
  P.pdt_init_res tr0 F (frame_addr F =? cr3 s) (pdt_init slot F s).
Proof.
  intros HI Hg HbF HoF HnF.
  apply P.pdt_init_is_translation.
  - assert (H40 : F < 2 ^ 40) by (eapply backed_lt40; [exact (wf_arena _ _ _ (inv_wf _ _ _ _ HI)) | exact HbF]).
    change (2 ^ 40) with 1099511627776 in H40. unfold two64. lia.
  - eapply init_stable_inv; eassumption.
Qed.
