(** The hand-written model of EarlyReserveRegion (Vmm/Region.v) equals the Gallina term that gen/gotrans
    regenerates from kernel/mm/vmm/addr_space.go on every run (Gen/Trans_mm_vmm.v); likewise the page /
    frame conversions of kernel/mm/page.go. A change of the Go function body changes the generated term
    and this file stops checking unless the change is an equivalent rewrite.  MapRegion and IdentityMapRegion, which
    call it through a seam, are a translation unit of their own (Gen/Trans_mm_vmm2.v): Vmm/RegionTrans2.v. *)
From Coq Require Import NArith Lia Bool String.
From Coq Require Import ZifyBool ZifyN ZifyNat.
From FF Require Import Lib.Word Lib.GoOps Lib.GoOpsProofs Gen.Consts_mm_vmm Gen.Trans_mm_vmm Vmm.Region Vmm.RegionProofs.
Local Open Scope N_scope.

Lemma round_up_trans size :
  N.land (gw 64 (size + gsub 64 mm_PageSize 1)) (gnot 64 (gsub 64 mm_PageSize 1)) = round_up size.
Proof.
  unfold round_up, PageSize.
  assert (E: gsub 64 mm_PageSize 1 = mm_PageSize - 1) by reflexivity.
  rewrite E, gw64. apply land_gnot64; [apply w64_lt|reflexivity].
Qed.

(** the translated function: (new cursor, returned address, error) *)
Theorem early_reserve_is_translation last size :
  size < two64 -> last < two64 ->
  go_vmm_EarlyReserveRegion last size =
    match early_reserve last size with
    | (l', Some a) => (l', a, None)
    | (l', None) => (l', 0, Some "errEarlyReserveNoSpace"%string)
    end.
Proof.
  intros Hs Hl. unfold go_vmm_EarlyReserveRegion, early_reserve.
  rewrite (round_up_trans size).
  destruct (round_up size <? size) eqn:E1; cbn [orb].
  - reflexivity.
  - destruct (last <? round_up size) eqn:E2.
    + reflexivity.
    + rewrite gsub64_small by lia. reflexivity.
Qed.

Theorem page_of_addr_is_translation a :
  a < two64 -> go_mm_PageFromAddress a = page_of_addr a /\ go_mm_FrameFromAddress a = page_of_addr a.
Proof.
  intros Ha. unfold go_mm_PageFromAddress, go_mm_FrameFromAddress, page_of_addr, PageSize, PageShift.
  assert (E: gw 64 (gsub 64 mm_PageSize 1) = mm_PageSize - 1) by reflexivity.
  rewrite E, land_gnot64 by (try exact Ha; reflexivity).
  assert (H: N.shiftr (N.ldiff a (mm_PageSize - 1)) mm_PageShift < two64).
  { rewrite N.shiftr_div_pow2.
    assert (H1: N.ldiff a (mm_PageSize - 1) <= a).
    { change (mm_PageSize - 1) with (2 ^ 12 - 1). fold (andnot a (2 ^ 12 - 1)). rewrite andnot_pow2. lia. }
    change (2 ^ mm_PageShift) with 4096. lia. }
  rewrite gw64_small by exact H. unfold andnot. auto.
Qed.
