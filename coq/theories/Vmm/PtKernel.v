(** C05 [kernel_aspace]: setupPDTForKernel builds exactly the address space its section table and the
    early reservations describe, and activates it. *)
From Coq Require Import NArith ZArith Lia List Bool.
From Coq Require Import ZifyBool ZifyN ZifyNat.
From FF Require Import Lib.Word Gen.Consts_mm_vmm Vmm.Region Vmm.Pt Vmm.PtMem Vmm.PtArith Vmm.PtTree Vmm.PtMap Vmm.PtOps
     Vmm.PtTheorems Vmm.PtInit Vmm.PtPdt Vmm.PtCow Vmm.PtTemp Vmm.PtHist.
Import ListNotations.
Local Open Scope N_scope.

(** * The binary loops are plain bounded iteration with early exit *)
Section IterNat.
  Context {S T : Type}.
  Variable f : S -> S + T.
  Fixpoint iter_nat (n : nat) (s : S) : S + T :=
    match n with
    | O => inl s
    | Datatypes.S n' => match f s with inl s' => iter_nat n' s' | inr r => inr r end
    end.

  Lemma iter_nat_add a b s :
    iter_nat (a + b) s = match iter_nat a s with inl s' => iter_nat b s' | inr r => inr r end.
  Proof.
    revert s. induction a as [|a IH]; intros s; cbn [Nat.add iter_nat]; [reflexivity|].
    destruct (f s); [apply IH | reflexivity].
  Qed.

  Lemma iter_pos_nat p s : iter_pos f p s = iter_nat (Pos.to_nat p) s.
  Proof.
    revert s. induction p as [p IH|p IH|]; intros s; cbn [iter_pos].
    - rewrite Pos2Nat.inj_xI. cbn [iter_nat]. destruct (f s) as [s'|r]; [|reflexivity].
      replace (2 * Pos.to_nat p)%nat with (Pos.to_nat p + Pos.to_nat p)%nat by lia.
      rewrite iter_nat_add, <- IH. destruct (iter_pos f p s'); [apply IH | reflexivity].
    - rewrite Pos2Nat.inj_xO. replace (2 * Pos.to_nat p)%nat with (Pos.to_nat p + Pos.to_nat p)%nat by lia.
      rewrite iter_nat_add, <- IH. destruct (iter_pos f p s); [apply IH | reflexivity].
    - change (Pos.to_nat 1) with 1%nat. cbn [iter_nat]. destruct (f s); reflexivity.
  Qed.

  Lemma iter_n_nat n s : iter_n f n s = iter_nat (N.to_nat n) s.
  Proof. destruct n as [|p]; [reflexivity|]. cbn [iter_n N.to_nat]. apply iter_pos_nat. Qed.
End IterNat.

(** * The abstract address space being built *)
(** [n] consecutive pages from [p0] onto consecutive frames from [f0] *)
Fixpoint mrange (m : amap) (p0 f0 flags : N) (n : nat) : amap :=
  match n with
  | O => m
  | S n' => mrange (aupd m (ixs p0) (Some (f0, flags))) (p0 + 1) (f0 + 1) flags n'
  end.

(** * The state of the construction: A active (tree [ownA]), T under construction (tree [own]) *)
Record Kst (s0 s : st) (A T : N) (ownA own : ownmap) (m : amap) : Prop := {
  k_inv2 : Inv2 s A T ownA own;
  k_slot : pdts s kernel_slot = T;
  k_prot : prot s = false;
  k_ref : forall q, hw_idx q 0 <> 511 -> translation s T q = m (ixs q);
  k_A : forall q, hw_idx q 0 <> 511 -> aspace s A q = aspace s0 A q;
  k_cr3 : cr3 s = cr3 s0;
  k_last : last s = last s0;
  k_slog : slog s = slog s0
}.

Definition flags_ok (flags : N) : Prop := N.land flags vmm_ptePhysPageMask = 0 /\ N.testbit flags 0 = true.

(** one PageDirectoryTable.Map of the construction *)
Lemma kstep s0 s A T ownA own m page frame flags :
  Kst s0 s A T ownA own m -> hw_idx page 0 <> 511 -> frame < 2 ^ 40 -> flags_ok flags ->
  exists s' err own',
    pdt_map kernel_slot page frame flags s = Ok (s', err) /\ (err = 0 \/ err = E_ALLOC) /\
    (err = 0 -> Kst s0 s' A T ownA own' (aupd m (ixs page) (Some (frame, flags)))) /\
    (err <> 0 -> cr3 s' = cr3 s0 /\ slog s' = slog s0) /\
    (length (orc s) <= length (orc s') + 3)%nat /\
    ((3 <= length (orc s))%nat -> Forall (fun x => x <> 0) (firstn 3 (orc s)) -> err = 0) /\
    (Forall (fun x => x <> 0) (orc s) -> Forall (fun x => x <> 0) (orc s')).
Proof.
  intros [HI2 Hslot Hp Href HA Hcr Hlast Hslog] H511 Hf [Hfl HP].
  assert (Hg: zero_guard s frame flags = false) by (unfold zero_guard; rewrite Hp; reflexivity).
  destruct (pdt_map_inactive s A T ownA own kernel_slot page frame flags HI2 Hslot H511 Hg) as
      (s3 & err & own' & Hrun & HI3 & Herr & _ & HaspA & Hok & Hfail & Henv & (n & Hn & _) & Hb1 & Hb2).
  exists s3, err, own'. split; [exact Hrun|]. split; [exact Herr|].
  destruct Henv as (E1 & E2 & E3 & E4 & E5 & Ez & Ep & Epd & Ein).
  split.
  - intros E0. destruct (Hok E0) as (Ha & Hoth & _).
    split.
    + exact HI3.
    + rewrite Epd. exact Hslot.
    + rewrite Ep. exact Hp.
    + intros q Hq. rewrite (tr_after_map s s3 T page frame flags m Ha Hoth Hf Hfl Href q Hq), HP. reflexivity.
    + intros q Hq. rewrite (HaspA q Hq). apply HA. exact Hq.
    + rewrite E3. exact Hcr.
    + rewrite E5. exact Hlast.
    + rewrite E4. exact Hslog.
  - split; [intros _; split; [rewrite E3; exact Hcr | rewrite E4; exact Hslog]|]. split; [exact Hb1|]. split; [exact Hb2|].
    intros H0. rewrite Hn. apply Forall_skipn. exact H0.
Qed.

(** * The page loop of a section *)
Definition nz (l : list N) : Prop := Forall (fun x => x <> 0) l.

Lemma page_loop s0 A T ownA flags : forall n s own m p0 f0,
  Kst s0 s A T ownA own m -> flags_ok flags ->
  (forall j, (j < n)%nat -> hw_idx (p0 + N.of_nat j) 0 <> 511) ->
  p0 + N.of_nat n <= 2 ^ 52 -> f0 + N.of_nat n <= 2 ^ 40 ->
  (exists s' own', iter_nat (map_step (fun p f => pdt_map kernel_slot p f flags)) n (s, p0, f0) = inl (s', p0 + N.of_nat n, f0 + N.of_nat n) /\
                   Kst s0 s' A T ownA own' (mrange m p0 f0 flags n) /\
                   (length (orc s) <= length (orc s') + 3 * n)%nat /\ (nz (orc s) -> nz (orc s'))) \/
  (exists s', iter_nat (map_step (fun p f => pdt_map kernel_slot p f flags)) n (s, p0, f0) = inr (Some (s', E_ALLOC)) /\
              cr3 s' = cr3 s0 /\ slog s' = slog s0 /\
              ~ ((3 * n <= length (orc s))%nat /\ nz (orc s))).
Proof.
  induction n as [|n IH]; intros s own m p0 f0 HK Hfl H511 Hp Hf.
  - left. exists s, own. cbn [iter_nat mrange N.of_nat]. rewrite !N.add_0_r. split; [reflexivity|]. split; [exact HK|]. split; [lia | tauto].
  - cbn [iter_nat map_step].
    assert (H0: hw_idx p0 0 <> 511) by (specialize (H511 0%nat ltac:(lia)); rewrite N.add_0_r in H511; exact H511).
    destruct (kstep s0 s A T ownA own m p0 f0 flags HK H0 ltac:(lia) Hfl) as (s1 & err & own1 & Hrun & Herr & Hok & Hfail & Hb1 & Hb2 & Hb3).
    rewrite Hrun.
    destruct (N.eqb_spec err 0) as [E0|E0].
    + specialize (Hok E0).
      assert (Ew1: w64 (p0 + 1) = p0 + 1) by (apply w64_incr; lia).
      assert (Ew2: w64 (f0 + 1) = f0 + 1) by (apply w64_incr; change (2 ^ 40) with 1099511627776 in Hf; change (2 ^ 52) with 4503599627370496; lia).
      rewrite Ew1, Ew2.
      destruct (IH s1 own1 _ (p0 + 1) (f0 + 1) Hok Hfl) as [(s' & own' & Hr & HK' & Hlen & Hnz') | (s' & Hr & Hc & Hsl & Hne)].
      * intros j Hj. replace (p0 + 1 + N.of_nat j) with (p0 + N.of_nat (S j)) by lia. apply H511. lia.
      * lia.
      * lia.
      * left. exists s', own'. rewrite Hr. replace (p0 + 1 + N.of_nat n) with (p0 + N.of_nat (S n)) by lia.
        replace (f0 + 1 + N.of_nat n) with (f0 + N.of_nat (S n)) by lia.
        split; [reflexivity|]. split; [exact HK'|]. split; [lia | tauto].
      * right. exists s'. rewrite Hr. split; [reflexivity|]. split; [exact Hc|]. split; [exact Hsl|].
        intros [Hl Hnz]. apply Hne. split; [lia | exact (Hb3 Hnz)].
    + right. destruct Herr as [E|E]; [congruence|]. subst err. exists s1. split; [reflexivity|].
      destruct (Hfail E0) as [Hc Hsl]. split; [exact Hc|]. split; [exact Hsl|].
      intros [Hl Hnz]. apply E0. apply Hb2; [lia | apply Forall_firstn; exact Hnz].
Qed.

(** * One section *)
Definition sec_flags (sflags : N) : N :=
  let fl1 := if N.land sflags sec_executable =? 0 then N.lor vmm_FlagPresent vmm_FlagNoExecute else vmm_FlagPresent in
  if negb (N.land sflags sec_writable =? 0) then N.lor fl1 vmm_FlagRW else fl1.
Definition sec_cur (addr : N) : N := page_from_addr addr.
Definition sec_last (addr size : N) : N := page_from_addr (w64 (addr + w64 (size + (two64 - 1)))).
Definition sec_n (addr size : N) : N :=
  if sec_cur addr <=? sec_last addr size then sec_last addr size - sec_cur addr + 1 else 0.
Definition sec_frame (off addr : N) : N := N.shiftr (w64 (addr + two64 - off)) mm_PageShift.

Lemma sec_flags_ok sflags : flags_ok (sec_flags sflags).
Proof.
  unfold sec_flags, flags_ok.
  destruct (N.land sflags sec_executable =? 0); destruct (negb (N.land sflags sec_writable =? 0)); split; reflexivity.
Qed.

(** a section inside the quantifier: its pages avoid the recursive window, its frames stay below 2^40 *)
Definition sec_dom (off : N) (sec : section) : Prop :=
  let '(sflags, addr, size) := sec in
  addr < off \/
  ((forall j, j < sec_n addr size -> hw_idx (sec_cur addr + j) 0 <> 511) /\
   sec_cur addr + sec_n addr size <= 2 ^ 52 /\ sec_frame off addr + sec_n addr size <= 2 ^ 40).

Definition asec (off : N) (sec : section) (m : amap) : amap :=
  let '(sflags, addr, size) := sec in
  if addr <? off then m
  else mrange m (sec_cur addr) (sec_frame off addr) (sec_flags sflags) (N.to_nat (sec_n addr size)).

Definition sec_need (off : N) (sec : section) : nat :=
  let '(sflags, addr, size) := sec in if addr <? off then 0%nat else N.to_nat (sec_n addr size).

Lemma visit_section_err off sec s err : err <> 0 -> visit_section off sec (Ok (s, err)) = Ok (s, err).
Proof.
  intros He. unfold visit_section. destruct sec as [[sflags addr] size].
  destruct (N.eqb_spec err 0); [congruence|]. reflexivity.
Qed.

Lemma visit_section_spec s0 A T ownA off sec s own m :
  Kst s0 s A T ownA own m -> sec_dom off sec ->
  (exists s' own', visit_section off sec (Ok (s, 0)) = Ok (s', 0) /\ Kst s0 s' A T ownA own' (asec off sec m) /\
                   (length (orc s) <= length (orc s') + 3 * sec_need off sec)%nat /\ (nz (orc s) -> nz (orc s'))) \/
  (exists s', visit_section off sec (Ok (s, 0)) = Ok (s', E_ALLOC) /\ cr3 s' = cr3 s0 /\ slog s' = slog s0 /\
              ~ ((3 * sec_need off sec <= length (orc s))%nat /\ nz (orc s))).
Proof.
  intros HK Hd. destruct sec as [[sflags addr] size]. unfold visit_section, sec_dom, asec, sec_need in *.
  cbn [N.eqb negb orb].
  destruct (N.ltb_spec addr off) as [Hlt|Hge].
  { left. exists s, own. split; [reflexivity|]. split; [exact HK|]. split; [lia | tauto]. }
  destruct Hd as [Hd|(H511 & Hp & Hf)]; [lia|].
  fold (sec_flags sflags). fold (sec_cur addr). fold (sec_last addr size). fold (sec_frame off addr). fold (sec_n addr size).
  rewrite iter_n_nat.
  destruct (page_loop s0 A T ownA (sec_flags sflags) (N.to_nat (sec_n addr size)) s own m (sec_cur addr) (sec_frame off addr)
              HK (sec_flags_ok sflags)) as [(s' & own' & Hr & HK' & Hlen & Hnz) | (s' & Hr & Hc & Hsl & Hne)].
  - intros j Hj. apply H511. lia.
  - rewrite N2Nat.id. exact Hp.
  - rewrite N2Nat.id. exact Hf.
  - left. exists s', own'. rewrite Hr. split; [reflexivity|]. split; [exact HK'|]. split; assumption.
  - right. exists s'. rewrite Hr. split; [reflexivity|]. split; [exact Hc|]. split; assumption.
Qed.

(** * All sections *)
Definition asecs (off : N) (secs : list section) (m : amap) : amap := fold_left (fun m sec => asec off sec m) secs m.
Definition secs_need (off : N) (secs : list section) : nat := fold_right (fun sec k => (sec_need off sec + k)%nat) 0%nat secs.

Lemma secs_need_cons off sec r : secs_need off (sec :: r) = (sec_need off sec + secs_need off r)%nat.
Proof. reflexivity. Qed.

Lemma fold_visit_err off secs s err :
  err <> 0 -> fold_left (fun acc sec => visit_section off sec acc) secs (Ok (s, err)) = Ok (s, err).
Proof.
  intros He. induction secs as [|sec r IH]; [reflexivity|]. cbn [fold_left]. rewrite visit_section_err by exact He. exact IH.
Qed.

Lemma sections_spec s0 A T ownA off : forall secs s own m,
  Kst s0 s A T ownA own m -> Forall (sec_dom off) secs ->
  (exists s' own', fold_left (fun acc sec => visit_section off sec acc) secs (Ok (s, 0)) = Ok (s', 0) /\
                   Kst s0 s' A T ownA own' (asecs off secs m) /\
                   (length (orc s) <= length (orc s') + 3 * secs_need off secs)%nat /\ (nz (orc s) -> nz (orc s'))) \/
  (exists s', fold_left (fun acc sec => visit_section off sec acc) secs (Ok (s, 0)) = Ok (s', E_ALLOC) /\
              cr3 s' = cr3 s0 /\ slog s' = slog s0 /\
              ~ ((3 * secs_need off secs <= length (orc s))%nat /\ nz (orc s))).
Proof.
  induction secs as [|sec r IH]; intros s own m HK Hd.
  - left. exists s, own. split; [reflexivity|]. split; [exact HK|]. split; [cbn; lia | tauto].
  - inversion Hd as [|? ? Hd1 Hdr]; subst. cbn [fold_left asecs]. rewrite secs_need_cons.
    destruct (visit_section_spec s0 A T ownA off sec s own m HK Hd1) as [(s1 & own1 & Hr & HK1 & Hlen & Hnz) | (s1 & Hr & Hc & Hsl & Hne)].
    + rewrite Hr. destruct (IH s1 own1 _ HK1 Hdr) as [(s' & own' & Hr' & HK' & Hlen' & Hnz') | (s' & Hr' & Hc' & Hsl' & Hne')].
      * left. exists s', own'. split; [exact Hr'|]. split; [exact HK'|]. split; [lia | tauto].
      * right. exists s'. split; [exact Hr'|]. split; [exact Hc'|]. split; [exact Hsl'|].
        intros [Hl Hz]. apply Hne'. split; [lia | tauto].
    + right. exists s1. rewrite Hr, fold_visit_err by discriminate. split; [reflexivity|]. split; [exact Hc|]. split; [exact Hsl|].
      intros [Hl Hz]. apply Hne. split; [lia | exact Hz].
Qed.

(** * The early reservations *)
Lemma Inv2_A s A T ownA own : Inv2 s A T ownA own -> Inv s A A ownA.
Proof.
  intros [WA WT Hcr Hdisj [F1 F2] HFA].
  destruct (wf_owned _ _ _ WA A [] (wf_root _ _ _ WA)) as (HbA & _).
  destruct (wf_rec _ _ _ WA) as [U1 U2].
  split; [exact WA | exact Hcr | | left; reflexivity |].
  - unfold Rec. repeat split; assumption.
  - split; [exact F1|]. intros f Hin Hz. destruct (F2 f Hin Hz) as (B1 & _ & B3). split; [exact B1|]. split; [|exact B3].
    apply HFA; assumption.
Qed.

(* the first address of top-level slot 510, the slot below the recursive one *)
Definition resv_lo : N := 0xffffff0000000000.

Lemma resv_idx a : resv_lo <= a -> a < vmm_tempMappingAddr -> hw_idx (N.shiftr a 12) 0 <> 511.
Proof.
  intros H1 H2. rewrite hw_idx_spec by lia. rewrite N.shiftr_div_pow2.
  change (2 ^ 12) with 4096. change (2 ^ (9 * (3 - 0))) with 134217728.
  unfold resv_lo, vmm_tempMappingAddr in *. lia.
Qed.

Lemma page_from_addr_shr a : page_from_addr a = N.shiftr a 12.
Proof.
  unfold page_from_addr. change (mm_PageSize - 1) with (2 ^ 12 - 1). rewrite andnot_pow2, page_shift_val, !N.shiftr_div_pow2.
  change (2 ^ 12) with 4096. lia.
Qed.

Lemma translation_frame_lt s A q f fl : translation s A q = Some (f, fl) -> f < 2 ^ 40.
Proof.
  unfold translation. destruct (aspace s A q) as [e|]; [|discriminate]. destruct (hw_P e); [|discriminate].
  intros E. injection E as E1 _. subst f. apply hw_frame_lt.
Qed.

Lemma P_RW_ok : flags_ok P_RW.
Proof. split; reflexivity. Qed.

(** the reserved pages are copied with the frame they translate to in the old space, present + writable *)
Fixpoint mresv (tr : N -> option (N * N)) (m : amap) (a : N) (n : nat) : amap :=
  match n with
  | O => m
  | S n' => match tr (N.shiftr a 12) with
            | Some (f, _) => mresv tr (aupd m (ixs (N.shiftr a 12)) (Some (f, P_RW))) (a + 4096) n'
            | None => m
            end
  end.

Lemma resv_loop s0 A T ownA : forall n s own m a,
  Kst s0 s A T ownA own m -> resv_lo <= a -> a + 4096 * N.of_nat n <= vmm_tempMappingAddr ->
  (forall j, (j < n)%nat -> translation s0 A (N.shiftr (a + 4096 * N.of_nat j) 12) <> None) ->
  (exists s' own', iter_nat resv_step n (s, a) = inl (s', a + 4096 * N.of_nat n) /\
                   Kst s0 s' A T ownA own' (mresv (translation s0 A) m a n) /\
                   (length (orc s) <= length (orc s') + 3 * n)%nat /\ (nz (orc s) -> nz (orc s'))) \/
  (exists s', iter_nat resv_step n (s, a) = inr (Some (s', E_ALLOC)) /\ cr3 s' = cr3 s0 /\ slog s' = slog s0 /\
              ~ ((3 * n <= length (orc s))%nat /\ nz (orc s))).
Proof.
  induction n as [|n IH]; intros s own m a HK Hlo Hhi Hmapped.
  - left. exists s, own. cbn [iter_nat mresv N.of_nat]. rewrite N.mul_0_r, N.add_0_r.
    split; [reflexivity|]. split; [exact HK|]. split; [lia | tauto].
  - cbn [iter_nat resv_step mresv].
    assert (Ha: a < vmm_tempMappingAddr) by lia.
    pose proof (resv_idx a Hlo Ha) as H511.
    pose proof (Inv2_A _ _ _ _ _ (k_inv2 _ _ _ _ _ _ _ HK)) as HIA.
    rewrite (translate_ok s A A ownA a HIA H511).
    assert (Etr: translation s A (N.shiftr a 12) = translation s0 A (N.shiftr a 12)).
    { unfold translation. rewrite (k_A _ _ _ _ _ _ _ HK _ H511). reflexivity. }
    rewrite Etr.
    specialize (Hmapped 0%nat ltac:(lia)) as Hm0. rewrite N.mul_0_r, N.add_0_r in Hm0.
    destruct (translation s0 A (N.shiftr a 12)) as [[f fl]|] eqn:Et; [|congruence].
    pose proof (translation_frame_lt s0 A _ f fl Et) as Hf40.
    cbn [N.eqb negb].
    assert (Epa: N.shiftr (f * 4096 + a mod 4096) mm_PageShift = f).
    { rewrite page_shift_val, N.shiftr_div_pow2. change (2 ^ 12) with 4096. lia. }
    rewrite Epa, page_from_addr_shr.
    destruct (kstep s0 s A T ownA own m (N.shiftr a 12) f P_RW HK H511 Hf40 P_RW_ok) as
        (s1 & err & own1 & Hrun & Herr & Hok & Hfail & Hb1 & Hb2 & Hb3).
    rewrite Hrun.
    destruct (N.eqb_spec err 0) as [E0|E0].
    + specialize (Hok E0).
      assert (Ew: w64 (a + mm_PageSize) = a + 4096).
      { apply w64_small. unfold two64, vmm_tempMappingAddr in *. change mm_PageSize with 4096. lia. }
      rewrite Ew.
      destruct (IH s1 own1 _ (a + 4096) Hok) as [(s' & own' & Hr & HK' & Hlen & Hnz') | (s' & Hr & Hc & Hsl & Hne)].
      * unfold resv_lo in *. lia.
      * lia.
      * intros j Hj. replace (a + 4096 + 4096 * N.of_nat j) with (a + 4096 * N.of_nat (S j)) by lia. apply Hmapped. lia.
      * left. exists s', own'. change (negb (E_OK =? 0)) with false. cbn iota. rewrite Hr. replace (a + 4096 + 4096 * N.of_nat n) with (a + 4096 * N.of_nat (S n)) by lia.
        split; [reflexivity|]. split; [exact HK'|]. split; [lia | tauto].
      * right. exists s'. change (negb (E_OK =? 0)) with false. cbn iota. rewrite Hr. split; [reflexivity|]. split; [exact Hc|]. split; [exact Hsl|].
        intros [Hl Hz]. apply Hne. split; [lia | exact (Hb3 Hz)].
    + right. destruct Herr as [E|E]; [congruence|]. subst err. exists s1. split; [reflexivity|].
      destruct (Hfail E0) as [Hc Hsl]. split; [exact Hc|]. split; [exact Hsl|].
      intros [Hl Hz]. apply E0. apply Hb2; [lia | apply Forall_firstn; exact Hz].
Qed.

Lemma mresv_ext tr1 tr2 : forall n m a,
  (forall j, (j < n)%nat -> tr1 (N.shiftr (a + 4096 * N.of_nat j) 12) = tr2 (N.shiftr (a + 4096 * N.of_nat j) 12)) ->
  mresv tr1 m a n = mresv tr2 m a n.
Proof.
  induction n as [|n IH]; intros m a H; [reflexivity|]. cbn [mresv].
  specialize (H 0%nat ltac:(lia)) as H0. rewrite N.mul_0_r, N.add_0_r in H0. rewrite H0.
  destruct (tr2 (N.shiftr a 12)) as [[f fl]|]; [|reflexivity].
  apply IH. intros j Hj. replace (a + 4096 + 4096 * N.of_nat j) with (a + 4096 * N.of_nat (S j)) by lia. apply H. lia.
Qed.

Lemma mod36_ixs p :
  p mod 2 ^ 36 = hw_idx p 0 * 134217728 + hw_idx p 1 * 262144 + hw_idx p 2 * 512 + hw_idx p 3.
Proof.
  rewrite !hw_idx_spec by lia.
  change (2 ^ (9 * (3 - 0))) with 134217728. change (2 ^ (9 * (3 - 1))) with 262144.
  change (2 ^ (9 * (3 - 2))) with 512. change (2 ^ (9 * (3 - 3))) with 1.
  assert (H1: p mod 2 ^ 36 = (p / 134217728) mod 512 * 134217728 + p mod 134217728) by (apply (mod_split_top p 134217728); discriminate).
  assert (H2: p mod 134217728 = (p / 262144) mod 512 * 262144 + p mod 262144) by (apply (mod_split_top p 262144); discriminate).
  assert (H3: p mod 262144 = (p / 512) mod 512 * 512 + p mod 512) by (apply (mod_split_top p 512); discriminate).
  rewrite N.div_1_r, H1, H2, H3. ring.
Qed.

Lemma ixs_mod36 p q : ixs p = ixs q -> p mod 2 ^ 36 = q mod 2 ^ 36.
Proof.
  unfold ixs. intros E. injection E as E0 E1 E2 E3. rewrite !mod36_ixs, E0, E1, E2, E3. reflexivity.
Qed.

Lemma resv_not_temp a : resv_lo <= a -> a + 4096 <= vmm_tempMappingAddr -> ~ same_page (N.shiftr a 12) temp_page.
Proof.
  intros H1 H2 E. apply ixs_mod36 in E. rewrite temp_page_val in E. rewrite N.shiftr_div_pow2 in E.
  change (2 ^ 12) with 4096 in E. change (2 ^ 36) with 68719476736 in E.
  unfold resv_lo, vmm_tempMappingAddr in *. lia.
Qed.

Theorem pdt_activate_spec s A T ownA own slot :
  Inv2 s A T ownA own -> pdts s slot = T ->
  let s' := pdt_activate slot s in
  Inv2 s' T A own ownA /\ cr3 s' = frame_addr T /\ slog s' = frame_addr T :: slog s /\
  (forall f i, ent s' f i = ent s f i) /\ orc s' = orc s /\ flog s' = flog s.
Proof.
  intros [WA WT Hcr Hdisj [G1 G2] HFA] Hslot s'.
  destruct (wf_owned _ _ _ WT T [] (wf_root _ _ _ WT)) as (HbT & _).
  assert (HT40: T < 2 ^ 40) by (eapply backed_lt40; [exact (wf_arena _ _ _ WT) | exact HbT]).
  unfold s', pdt_activate. rewrite Hslot. cbn [cr3 slog orc flog set_slog set_cr3].
  split; [|repeat split].
  split.
  - apply (WF_ent_eq s _ T own WT); reflexivity.
  - apply (WF_ent_eq s _ A ownA WA); reflexivity.
  - exact (frame_addr_shr T HT40).
  - intros f Hf. destruct (ownA f) as [p|] eqn:E; [|reflexivity].
    exfalso. apply Hf. apply Hdisj. rewrite E. discriminate.
  - split; [exact G1|]. intros f Hin Hz. destruct (G2 f Hin Hz) as (B1 & B2 & B3).
    split; [exact B1|]. split; [exact (HFA f Hin Hz)|].
    intros E. rewrite E, (wf_root _ _ _ WT) in B2. discriminate.
  - intros f Hin Hz. destruct (G2 f Hin Hz) as (_ & B2 & _). exact B2.
Qed.

(** the number of reserved pages setupPDTForKernel walks *)
Definition resv_count (l : N) : N :=
  if l <? vmm_tempMappingAddr then (vmm_tempMappingAddr - l + (mm_PageSize - 1)) / mm_PageSize else 0.

Lemma resv_all (tr : N -> option (N * N)) l :
  l <= vmm_tempMappingAddr -> l mod 4096 = 0 ->
  (forall a, l <= a -> a < vmm_tempMappingAddr -> a mod 4096 = 0 -> tr (N.shiftr a 12) <> None) ->
  l + 4096 * N.of_nat (N.to_nat (resv_count l)) = vmm_tempMappingAddr /\
  forall i, (i < N.to_nat (resv_count l))%nat -> tr (N.shiftr (l + 4096 * N.of_nat i) 12) <> None.
Proof.
  intros Hhi Hal Hmapped.
  assert (Hcount: l + 4096 * N.of_nat (N.to_nat (resv_count l)) = vmm_tempMappingAddr).
  { unfold resv_count. rewrite N2Nat.id. change mm_PageSize with 4096.
    destruct (N.ltb_spec l vmm_tempMappingAddr) as [H|H]; unfold vmm_tempMappingAddr in *; lia. }
  split; [exact Hcount|]. intros i Hi. apply Hmapped; [lia | lia |].
  rewrite N.add_mod by discriminate. rewrite Hal. rewrite N.mul_comm, N.mod_mul by discriminate. reflexivity.
Qed.

Definition live_secs (secs : list section) : list section := filter (fun sec => negb (snd sec =? 0)) secs.

(** the address space setupPDTForKernel is to build: sections in table order, then the reservations *)
Definition kspec (s : st) (A off : N) (secs : list section) : amap :=
  mresv (translation s A) (asecs off (live_secs secs) (fun _ => None)) (last s) (N.to_nat (resv_count (last s))).

Theorem kernel_aspace s A ownA off secs kf r :
  Inv s A A ownA -> prot s = false -> orc s = kf :: r -> kf <> 0 ->
  Forall (sec_dom off) (live_secs secs) ->
  resv_lo <= last s -> last s <= vmm_tempMappingAddr -> last s mod 4096 = 0 ->
  (forall a, last s <= a -> a < vmm_tempMappingAddr -> a mod 4096 = 0 -> translation s A (N.shiftr a 12) <> None) ->
  exists s' err,
    setup_kernel off secs s = Ok (s', err) /\ (err = 0 \/ err = E_ALLOC) /\
    (err = 0 ->
       cr3 s' = frame_addr kf /\ slog s' = frame_addr kf :: slog s /\ pdts s' kernel_slot = kf /\
       (exists own' ownA', Inv2 s' kf A own' ownA') /\
       (forall q, hw_idx q 0 <> 511 -> translation s' kf q = kspec s A off secs (ixs q))) /\
    (err <> 0 -> cr3 s' = cr3 s /\ slog s' = slog s) /\
    ((4 + 3 * (secs_need off (live_secs secs) + N.to_nat (resv_count (last s))) <= length (orc s))%nat -> nz (orc s) -> err = 0).
Proof.
  intros HI Hp Eo Hkz Hdom Hlo Hhi Hal Hmapped.
  pose proof (inv_wf _ _ _ _ HI) as W.
  destruct (inv_fresh _ _ _ _ HI) as [F1 F2].
  destruct (F2 kf) as (Hbk & Hok & HkA); [rewrite Eo; left; reflexivity | exact Hkz |].
  assert (Hkr: ~ In kf r).
  { rewrite Eo in F1. eapply ofr_head_fresh; eassumption. }
  set (s1 := set_orc s r).
  assert (HI1: Inv s1 A A ownA) by (eapply Inv_pop; eassumption).
  assert (Hg1: (prot s1 && (kf =? zf s1)) = false) by (unfold s1; cbn [prot set_orc]; rewrite Hp; reflexivity).
  destruct (pdt_init_spec s1 A ownA kernel_slot kf HI1 Hg1 Hbk Hok Hkr) as
      (s2 & err2 & ownA1 & Hrun2 & Herr2 & Hslot2 & _ & Elo & Ecnt & Ecr & Ezf & Epr & Elast & Eslog & (n2 & Hn2 & _) & Hok2 & Hfail2 & Hb21 & Hb22).
  unfold setup_kernel, alloc. rewrite Eo. destruct (N.eqb_spec kf 0); [congruence|]. fold s1. rewrite Hrun2.
  destruct (N.eqb_spec err2 0) as [E2|E2]; cbn [negb].
  2:{ exists s2, err2. split; [reflexivity|]. split; [exact Herr2|]. split; [intros H; congruence|].
      split; [intros _; split; [rewrite Ecr | rewrite Eslog]; reflexivity|].
      intros Hlen Hz. rewrite <- Eo in Hlen, Hz. exfalso. apply E2. apply Hb22.
      - unfold s1. cbn [orc set_orc]. rewrite Eo in Hlen. cbn [length] in Hlen. lia.
      - unfold s1. cbn [orc set_orc]. apply Forall_firstn. rewrite Eo in Hz. inversion Hz; assumption. }
  subst err2. destruct (Hok2 eq_refl) as (HI2 & Hempty & HtrA & _ & _).
  (* the construction state, relative to s2 *)
  assert (HK2: Kst s2 s2 A kf ownA1 (own_root kf) (fun _ => None)).
  { split; try reflexivity.
    - exact HI2.
    - exact Hslot2.
    - rewrite Epr. exact Hp.
    - intros q Hq. unfold translation. rewrite (Hempty q Hq). reflexivity. }
  fold (live_secs secs). unfold E_OK.
  assert (Ho2: (length (orc s) <= length (orc s2) + 4)%nat).
  { rewrite Eo. cbn [length]. unfold s1 in Hb21. cbn [orc set_orc] in Hb21. lia. }
  assert (Hz2: nz (orc s) -> nz (orc s2)).
  { intros Hz. rewrite Hn2. apply Forall_skipn. unfold s1. cbn [orc set_orc]. rewrite Eo in Hz. inversion Hz; assumption. }
  destruct (sections_spec s2 A kf ownA1 off (live_secs secs) s2 (own_root kf) _ HK2 Hdom) as
      [(s3 & own3 & Hr3 & HK3 & Hlen3 & Hnz3) | (s3 & Hr3 & Hc3 & Hsl3 & Hne3)].
  2:{ rewrite Hr3. cbn [N.eqb negb]. exists s3, E_ALLOC. split; [reflexivity|]. split; [right; reflexivity|].
      split; [intros H; discriminate|]. split; [intros _; split; [rewrite Hc3, Ecr | rewrite Hsl3, Eslog]; reflexivity|].
      intros Hlen Hz. rewrite <- Eo in Hlen, Hz. exfalso. apply Hne3. split; [lia | exact (Hz2 Hz)]. }
  rewrite Hr3. cbn [N.eqb negb].
  assert (El3: last s3 = last s) by (rewrite (k_last _ _ _ _ _ _ _ HK3), Elast; reflexivity).
  rewrite El3. fold (resv_count (last s)). rewrite iter_n_nat.
  destruct (resv_all (translation s A) (last s) Hhi Hal Hmapped) as [Hcount Hall].
  set (nr := N.to_nat (resv_count (last s))) in *.
  assert (Hm2: forall j, (j < nr)%nat -> translation s2 A (N.shiftr (last s + 4096 * N.of_nat j) 12) =
                                        translation s A (N.shiftr (last s + 4096 * N.of_nat j) 12)).
  { intros j Hj.
    assert (Hlt: last s + 4096 * N.of_nat j + 4096 <= vmm_tempMappingAddr) by lia.
    assert (Hge: resv_lo <= last s + 4096 * N.of_nat j) by (unfold resv_lo in *; lia).
    assert (Hlt': last s + 4096 * N.of_nat j < vmm_tempMappingAddr) by lia.
    rewrite (HtrA _ (resv_idx _ Hge Hlt') (resv_not_temp _ Hge Hlt)). reflexivity. }
  destruct (resv_loop s2 A kf ownA1 nr s3 own3 _ (last s) HK3 Hlo ltac:(lia)) as
      [(s4 & own4 & Hr4 & HK4 & Hlen4 & Hnz4) | (s4 & Hr4 & Hc4 & Hsl4 & Hne4)].
  { intros j Hj. rewrite (Hm2 j Hj). exact (Hall j Hj). }
  2:{ rewrite Hr4. exists s4, E_ALLOC. split; [reflexivity|]. split; [right; reflexivity|].
      split; [intros H; discriminate|]. split; [intros _; split; [rewrite Hc4, Ecr | rewrite Hsl4, Eslog]; reflexivity|].
      intros Hlen Hz. rewrite <- Eo in Hlen, Hz. exfalso. apply Hne4. split; [lia | exact (Hnz3 (Hz2 Hz))]. }
  rewrite Hr4. exists (pdt_activate kernel_slot s4), 0. split; [reflexivity|]. split; [left; reflexivity|].
  split; [|split; [intros H; congruence | intros; reflexivity]]. intros _.
  destruct HK4 as [KI Kslot Kp Kref KA Kcr Kl Ksl].
  destruct (pdt_activate_spec s4 A kf ownA1 own4 kernel_slot KI Kslot) as (KI' & Ecr' & Esl' & _).
  split; [exact Ecr'|]. split; [rewrite Esl', Ksl, Eslog; reflexivity|].
  split; [unfold pdt_activate; cbn [pdts set_slog set_cr3]; exact Kslot|].
  split; [exists own4, ownA1; exact KI'|].
  intros q Hq. transitivity (translation s4 kf q); [reflexivity|]. rewrite (Kref q Hq).
  unfold kspec. fold nr. rewrite (mresv_ext (translation s2 A) (translation s A) nr _ (last s) Hm2). reflexivity.
Qed.

(** * Reading the specification page by page *)
Lemma ixs_add_inj p a b : a < 2 ^ 36 -> b < 2 ^ 36 -> ixs (p + a) = ixs (p + b) -> a = b.
Proof.
  intros Ha Hb E. apply ixs_mod36 in E. change (2 ^ 36) with 68719476736 in *. lia.
Qed.

Lemma aupd_same m k v : aupd m k v k = v.
Proof. unfold aupd. destruct (list_eq_dec N.eq_dec k k); [reflexivity | congruence]. Qed.

Lemma aupd_other m k v k' : k' <> k -> aupd m k v k' = m k'.
Proof. intros H. unfold aupd. destruct (list_eq_dec N.eq_dec k' k); [congruence | reflexivity]. Qed.

Lemma mrange_out : forall n m p0 f0 fl k,
  (forall j, (j < n)%nat -> ixs (p0 + N.of_nat j) <> k) -> mrange m p0 f0 fl n k = m k.
Proof.
  induction n as [|n IH]; intros m p0 f0 fl k H; [reflexivity|]. cbn [mrange].
  rewrite IH.
  - apply aupd_other. specialize (H 0%nat ltac:(lia)). rewrite N.add_0_r in H. congruence.
  - intros j Hj. replace (p0 + 1 + N.of_nat j) with (p0 + N.of_nat (S j)) by lia. apply H. lia.
Qed.

Lemma mrange_in : forall n m p0 f0 fl j,
  N.of_nat n <= 2 ^ 36 -> (j < n)%nat -> mrange m p0 f0 fl n (ixs (p0 + N.of_nat j)) = Some (f0 + N.of_nat j, fl).
Proof.
  induction n as [|n IH]; intros m p0 f0 fl j Hn Hj; [lia|]. cbn [mrange].
  destruct j as [|j].
  - rewrite N.add_0_r. rewrite mrange_out; [rewrite N.add_0_r; apply aupd_same|].
    intros j' Hj' E. replace (p0 + 1 + N.of_nat j') with (p0 + N.of_nat (S j')) in E by lia.
    rewrite <- (N.add_0_r p0) in E at 2. apply ixs_add_inj in E; change (2 ^ 36) with 68719476736 in *; lia.
  - replace (p0 + N.of_nat (S j)) with (p0 + 1 + N.of_nat j) by lia.
    replace (f0 + N.of_nat (S j)) with (f0 + 1 + N.of_nat j) by lia.
    apply IH; lia.
Qed.

(** page [q] is the [j]-th page of section [sec] (which lies in the kernel's range) *)
Definition sec_page (off : N) (sec : section) (q j : N) : Prop :=
  let '(sflags, addr, size) := sec in off <= addr /\ j < sec_n addr size /\ ixs q = ixs (sec_cur addr + j).
Definition in_sec (off : N) (sec : section) (q : N) : Prop := exists j, sec_page off sec q j.

Lemma asec_out off sec m q : ~ in_sec off sec q -> asec off sec m (ixs q) = m (ixs q).
Proof.
  intros H. destruct sec as [[sflags addr] size]. unfold asec.
  destruct (N.ltb_spec addr off) as [Hlt|Hge]; [reflexivity|].
  apply mrange_out. intros j Hj E. apply H. exists (N.of_nat j). cbn. split; [exact Hge|]. split; [lia | symmetry; exact E].
Qed.

Lemma asec_in off sflags addr size m q j :
  sec_n addr size <= 2 ^ 36 -> sec_page off (sflags, addr, size) q j ->
  asec off (sflags, addr, size) m (ixs q) = Some (sec_frame off addr + j, sec_flags sflags).
Proof.
  intros Hn (Hge & Hj & E). unfold asec.
  destruct (N.ltb_spec addr off) as [Hlt|_]; [lia|].
  rewrite E. rewrite <- (N2Nat.id j) at 1 2. apply mrange_in; [rewrite N2Nat.id; exact Hn | lia].
Qed.

Lemma asecs_cons off sec r m : asecs off (sec :: r) m = asecs off r (asec off sec m).
Proof. reflexivity. Qed.

Lemma asecs_app off l1 l2 m : asecs off (l1 ++ l2) m = asecs off l2 (asecs off l1 m).
Proof. unfold asecs. apply fold_left_app. Qed.

Lemma asecs_out off : forall secs m q, (forall sec, In sec secs -> ~ in_sec off sec q) -> asecs off secs m (ixs q) = m (ixs q).
Proof.
  induction secs as [|sec r IH]; intros m q H; [reflexivity|]. rewrite asecs_cons.
  rewrite IH by (intros sec' Hin; apply H; right; exact Hin).
  apply asec_out. apply H. left. reflexivity.
Qed.

Lemma asecs_in off l1 sflags addr size l2 m q j :
  sec_n addr size <= 2 ^ 36 -> sec_page off (sflags, addr, size) q j ->
  (forall sec, In sec l2 -> ~ in_sec off sec q) ->
  asecs off (l1 ++ (sflags, addr, size) :: l2) m (ixs q) = Some (sec_frame off addr + j, sec_flags sflags).
Proof.
  intros Hn Hp Hl2. rewrite asecs_app, asecs_cons.
  rewrite asecs_out by exact Hl2. apply asec_in; assumption.
Qed.

Lemma mresv_out tr : forall n m a k,
  (forall j, (j < n)%nat -> ixs (N.shiftr (a + 4096 * N.of_nat j) 12) <> k) -> mresv tr m a n k = m k.
Proof.
  induction n as [|n IH]; intros m a k H; [reflexivity|]. cbn [mresv].
  destruct (tr (N.shiftr a 12)) as [[f fl]|]; [|reflexivity].
  rewrite IH.
  - apply aupd_other. specialize (H 0%nat ltac:(lia)). rewrite N.mul_0_r, N.add_0_r in H. congruence.
  - intros j Hj. replace (a + 4096 + 4096 * N.of_nat j) with (a + 4096 * N.of_nat (S j)) by lia. apply H. lia.
Qed.

Lemma resv_pages_distinct a i j :
  a mod 4096 = 0 -> a + 4096 * i < two64 -> a + 4096 * j < two64 ->
  ixs (N.shiftr (a + 4096 * i) 12) = ixs (N.shiftr (a + 4096 * j) 12) -> i < 2 ^ 36 -> j < 2 ^ 36 -> i = j.
Proof.
  intros Ha Hi Hj E Hi36 Hj36. rewrite !N.shiftr_div_pow2 in E. change (2 ^ 12) with 4096 in E.
  replace ((a + 4096 * i) / 4096) with (a / 4096 + i) in E by lia.
  replace ((a + 4096 * j) / 4096) with (a / 4096 + j) in E by lia.
  eapply ixs_add_inj; eassumption.
Qed.

Lemma mresv_in tr : forall n m a j f fl,
  a mod 4096 = 0 -> resv_lo <= a -> a + 4096 * N.of_nat n <= vmm_tempMappingAddr ->
  (forall i, (i < n)%nat -> tr (N.shiftr (a + 4096 * N.of_nat i) 12) <> None) ->
  (j < n)%nat -> tr (N.shiftr (a + 4096 * N.of_nat j) 12) = Some (f, fl) ->
  mresv tr m a n (ixs (N.shiftr (a + 4096 * N.of_nat j) 12)) = Some (f, P_RW).
Proof.
  induction n as [|n IH]; intros m a j f fl Ha Hlo Hhi Hall Hj Htr; [lia|]. cbn [mresv].
  assert (H36: N.of_nat (S n) < 2 ^ 36).
  { unfold vmm_tempMappingAddr, resv_lo in *. change (2 ^ 36) with 68719476736. lia. }
  destruct j as [|j].
  - rewrite N.mul_0_r, N.add_0_r in *. rewrite Htr.
    rewrite mresv_out; [apply aupd_same|].
    intros j' Hj' E. replace (a + 4096 + 4096 * N.of_nat j') with (a + 4096 * N.of_nat (S j')) in E by (clear; lia).
    assert (Hb1: a + 4096 * N.of_nat (S j') < two64) by (clear -Hhi Hj'; unfold vmm_tempMappingAddr, two64 in *; lia).
    assert (Hb2: a + 4096 * 0 < two64) by (clear -Hhi; unfold vmm_tempMappingAddr, two64 in *; lia).
    assert (Hb3: N.of_nat (S j') < 2 ^ 36) by (clear -H36 Hj'; change (2 ^ 36) with 68719476736 in *; lia).
    assert (Hb4: 0 < 2 ^ 36) by reflexivity.
    assert (E': ixs (N.shiftr (a + 4096 * N.of_nat (S j')) 12) = ixs (N.shiftr (a + 4096 * 0) 12)).
    { rewrite N.mul_0_r, N.add_0_r. exact E. }
    pose proof (resv_pages_distinct a _ _ Ha Hb1 Hb2 E' Hb3 Hb4) as Hd. clear -Hd. lia.
  - specialize (Hall 0%nat ltac:(lia)) as H0. rewrite N.mul_0_r, N.add_0_r in H0.
    destruct (tr (N.shiftr a 12)) as [[f0 fl0]|]; [|congruence].
    replace (a + 4096 * N.of_nat (S j)) with (a + 4096 + 4096 * N.of_nat j) in * by lia.
    apply (IH _ (a + 4096) j f fl).
    + rewrite N.add_mod by discriminate. rewrite Ha. reflexivity.
    + unfold resv_lo in *. lia.
    + lia.
    + intros i Hi. replace (a + 4096 + 4096 * N.of_nat i) with (a + 4096 * N.of_nat (S i)) by lia. apply Hall. lia.
    + lia.
    + exact Htr.
Qed.

(** page [q] is the [j]-th reserved page *)
Definition resv_page (s : st) (q : N) (j : nat) : Prop :=
  (j < N.to_nat (resv_count (last s)))%nat /\ ixs q = ixs (N.shiftr (last s + 4096 * N.of_nat j) 12).

(** The address space of [kernel_aspace], read page by page: a page of a section in the kernel's range
    maps to (address - offset)/4096 + i with the section's flag word; a reserved page maps to the frame it
    had in the old space, present and writable; every other page is unmapped -- in particular every
    page of a section below the kernel offset that is not also claimed by one of the above. *)
Theorem kspec_pages s A off secs :
  resv_lo <= last s -> last s <= vmm_tempMappingAddr -> last s mod 4096 = 0 ->
  (forall a, last s <= a -> a < vmm_tempMappingAddr -> a mod 4096 = 0 -> translation s A (N.shiftr a 12) <> None) ->
  (forall sflags addr size, In (sflags, addr, size) (live_secs secs) -> sec_n addr size <= 2 ^ 36) ->
  (* a section page, not claimed by a later section nor by a reservation *)
  (forall l1 sflags addr size l2 q j,
     live_secs secs = l1 ++ (sflags, addr, size) :: l2 -> sec_page off (sflags, addr, size) q j ->
     (forall sec, In sec l2 -> ~ in_sec off sec q) -> (forall i, ~ resv_page s q i) ->
     kspec s A off secs (ixs q) = Some (sec_frame off addr + j, sec_flags sflags)) /\
  (* a reserved page *)
  (forall q j f fl, resv_page s q j -> translation s A (N.shiftr (last s + 4096 * N.of_nat j) 12) = Some (f, fl) ->
     kspec s A off secs (ixs q) = Some (f, P_RW)) /\
  (* anything else *)
  (forall q, (forall sec, In sec (live_secs secs) -> ~ in_sec off sec q) -> (forall i, ~ resv_page s q i) ->
     kspec s A off secs (ixs q) = None).
Proof.
  intros Hlo Hhi Hal Hmapped Hsz.
  destruct (resv_all (translation s A) (last s) Hhi Hal Hmapped) as [Hcount Hall].
  set (nr := N.to_nat (resv_count (last s))) in *.
  unfold kspec. fold nr.
  split; [|split].
  - intros l1 sflags addr size l2 q j El Hp Hl2 Hnr.
    rewrite mresv_out by (intros i Hi E; apply (Hnr i); split; [exact Hi | symmetry; exact E]).
    rewrite El. apply asecs_in; try assumption.
    apply (Hsz sflags addr size). rewrite El. apply in_or_app. right. left. reflexivity.
  - intros q j f fl [Hj E] Htr. rewrite E. fold nr in Hj.
    apply (mresv_in (translation s A) nr _ (last s) j f fl Hal Hlo); try assumption. lia.
  - intros q Hns Hnr.
    rewrite mresv_out by (intros i Hi E; apply (Hnr i); split; [exact Hi | symmetry; exact E]).
    rewrite asecs_out by exact Hns. reflexivity.
Qed.

Lemma sec_geometry off addr size :
  0 < size -> addr + size <= two64 -> off <= addr ->
  sec_cur addr = addr / 4096 /\ sec_n addr size = (addr + size - 1) / 4096 - addr / 4096 + 1 /\
  sec_frame off addr = (addr - off) / 4096.
Proof.
  intros Hs Hw Ho.
  assert (Ec: sec_cur addr = addr / 4096).
  { unfold sec_cur. rewrite page_from_addr_shr, N.shiftr_div_pow2. reflexivity. }
  assert (El: sec_last addr size = (addr + size - 1) / 4096).
  { unfold sec_last. rewrite page_from_addr_shr, N.shiftr_div_pow2. change (2 ^ 12) with 4096.
    assert (E1: w64 (size + (two64 - 1)) = size - 1) by (unfold w64, two64 in *; lia).
    rewrite E1. assert (E2: w64 (addr + (size - 1)) = addr + size - 1) by (unfold w64, two64 in *; lia).
    rewrite E2. reflexivity. }
  split; [exact Ec|]. split.
  - unfold sec_n. rewrite Ec, El. destruct (N.leb_spec (addr / 4096) ((addr + size - 1) / 4096)) as [H|H]; [reflexivity|].
    exfalso. assert (addr <= addr + size - 1) by lia. pose proof (N.div_le_mono addr (addr + size - 1) 4096 ltac:(lia) H0). lia.
  - unfold sec_frame. rewrite page_shift_val, N.shiftr_div_pow2. change (2 ^ 12) with 4096.
    assert (E: w64 (addr + two64 - off) = addr - off) by (unfold w64, two64 in *; lia). rewrite E. reflexivity.
Qed.
