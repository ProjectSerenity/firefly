(** Page-table trees as the software MMU sees them, well-formedness (ghost ownership of table
    frames), and how the recursive window resolves onto them (C04 [recursive_entry]). *)
From Coq Require Import NArith ZArith Lia List Bool.
From Coq Require Import ZifyBool ZifyN ZifyNat.
From FF Require Import Lib.Word Gen.Consts_mm_vmm Vmm.Region Vmm.Pt Vmm.PtMem Vmm.PtArith.
Import ListNotations.
Local Open Scope N_scope.

Definition ent (s : st) (t i : N) : N := rd (mem s) t i.
Definition usable (e : N) : bool := hw_P e && negb (hw_PS e).

(** follow present, non-huge entries from table [t] along the indices [is] *)
Fixpoint follow (s : st) (t : N) (is : list N) : option N :=
  match is with
  | [] => Some t
  | i :: r => if backed s t && usable (ent s t i) then follow s (hw_frame (ent s t i)) r else None
  end.

(** the raw leaf entry reached from table [t] along [is] (the last index selects the entry) *)
Fixpoint look (s : st) (t : N) (is : list N) : option N :=
  match is with
  | [] => None
  | [i] => if backed s t then Some (ent s t i) else None
  | i :: r => if backed s t && usable (ent s t i) then look s (hw_frame (ent s t i)) r else None
  end.

Definition ixs (page : N) : list N := [hw_idx page 0; hw_idx page 1; hw_idx page 2; hw_idx page 3].

(** the address space of root [T]: page -> raw leaf entry, if all three upper levels are present *)
Definition aspace (s : st) (T page : N) : option N := look s T (ixs page).

(** what a page translates to: (frame, flag bits) of a present leaf *)
Definition translation (s : st) (T page : N) : option (N * N) :=
  match aspace s T page with
  | Some e => if hw_P e then Some (hw_frame e, N.ldiff e vmm_ptePhysPageMask) else None
  | None => None
  end.

Lemma backed_eq s s' : lo s' = lo s -> cnt s' = cnt s -> forall f, backed s' f = backed s f.
Proof. intros Hlo Hcnt f. unfold backed. rewrite Hlo, Hcnt. reflexivity. Qed.

Lemma ixs_lt page : Forall (fun x => x < 512) (ixs page).
Proof. unfold ixs. repeat constructor; apply hw_idx_lt. Qed.

Lemma ixs_length page : length (ixs page) = 4%nat.
Proof. reflexivity. Qed.

(** * The hardware walk follows usable entries *)
Lemma hw_walk_follow s levels t pg f :
  follow s t (map (hw_idx pg) levels) = Some f -> backed s f = true -> hw_walk s levels t pg = Some f.
Proof.
  revert t. induction levels as [|k rest IH]; intros t H Hb; cbn [map follow hw_walk] in *.
  - inversion H; subst. rewrite Hb. reflexivity.
  - destruct (backed s t); [|discriminate]. cbn [andb] in H.
    fold (ent s t (hw_idx pg k)). unfold usable in H.
    destruct (hw_P (ent s t (hw_idx pg k))); [|discriminate].
    destruct (hw_PS (ent s t (hw_idx pg k))); [discriminate|].
    cbn [andb negb] in *. apply IH; assumption.
Qed.

Lemma follow_app s t p q :
  follow s t (p ++ q) = match follow s t p with Some t' => follow s t' q | None => None end.
Proof.
  revert t. induction p as [|i p IH]; intros t; cbn [app follow]; [reflexivity|].
  destruct (backed s t && usable (ent s t i)); [apply IH | reflexivity].
Qed.

(** * The recursive window *)
(** [Rec s A T]: the active root [A]'s slot 511 points at root [T], whose slot 511 points at itself *)
Definition Rec (s : st) (A T : N) : Prop :=
  backed s A = true /\ usable (ent s A 511) = true /\ hw_frame (ent s A 511) = T /\
  backed s T = true /\ usable (ent s T 511) = true /\ hw_frame (ent s T 511) = T.

(** window indices of the level-|pre| table on the path [pre] *)
Definition wpath (pre : list N) : list N :=
  match pre with
  | [] => [511; 511; 511; 511]
  | [a] => [511; 511; 511; a]
  | [a; b] => [511; 511; a; b]
  | [a; b; c] => [511; a; b; c]
  | _ => []
  end.

(** the virtual address the Go walk holds as [tableAddr] at level |pre| *)
Definition wwin (pre : list N) : N :=
  match wpath pre with [a; b; c; d] => win a b c d | _ => 0 end.

Lemma follow_wpath s A T pre t :
  Rec s A T -> (length pre <= 3)%nat -> follow s T pre = Some t -> follow s A (wpath pre) = Some t.
Proof.
  intros (HA & HAu & HAf & HT & HTu & HTf) Hl H.
  assert (StepA: forall r, follow s A (511 :: r) = follow s T r).
  { intros r. cbn [follow]. rewrite HA, HAu, HAf. reflexivity. }
  assert (StepT: forall r, follow s T (511 :: r) = follow s T r).
  { intros r. cbn [follow]. rewrite HT, HTu, HTf. reflexivity. }
  destruct pre as [|a [|b [|c [|d r]]]]; cbn [wpath]; cbn [length] in Hl; try lia;
    rewrite StepA, ?StepT; exact H.
Qed.

Lemma wwin_nil : wwin [] = vmm_pdtVirtualAddr.
Proof. reflexivity. Qed.

Lemma wwin_next pre i :
  (length pre <= 2)%nat -> Forall (fun x => x < 512) pre -> i < 512 ->
  shl64 (add64 (wwin pre) (shl64 i 3)) 9 = wwin (pre ++ [i]).
Proof.
  intros Hl Hp Hi.
  destruct pre as [|a [|b [|c r]]]; cbn [length] in Hl; try lia; cbn [app]; unfold wwin; cbn [wpath];
    repeat match goal with H : Forall _ (_ :: _) |- _ => inversion H; clear H; subst end;
    apply win_next; lia.
Qed.

Lemma wpath_shape pre :
  (length pre <= 3)%nat -> Forall (fun x => x < 512) pre ->
  exists a b c d, wpath pre = [a; b; c; d] /\ a < 512 /\ b < 512 /\ c < 512 /\ d < 512.
Proof.
  intros Hl Hp.
  destruct pre as [|a [|b [|c [|d r]]]]; cbn [length] in Hl; try lia; cbn [wpath];
    repeat match goal with H : Forall _ (_ :: _) |- _ => inversion H; clear H; subst end;
    do 4 eexists; (split; [reflexivity|]); lia.
Qed.

(** an 8-byte access to entry [i] of the window table of [pre] lands on entry [i] of the table
    that [pre] leads to *)
Lemma resolve_entry s A T pre t i :
  N.shiftr (cr3 s) 12 = A -> Rec s A T -> (length pre <= 3)%nat -> Forall (fun x => x < 512) pre ->
  follow s T pre = Some t -> backed s t = true -> i < 512 ->
  resolve s (add64 (wwin pre) (shl64 i 3)) = Some (t, i).
Proof.
  intros Hcr HR Hl Hp Hf Hb Hi.
  destruct (wpath_shape pre Hl Hp) as (a & b & c & d & Hw & Ha & Hbb & Hc & Hd).
  pose proof (follow_wpath s A T pre t HR Hl Hf) as Hfw.
  unfold wwin. rewrite Hw in *. rewrite win_entry by assumption.
  destruct (win_off a b c d i) as [Ho1 Ho2]; try assumption.
  unfold resolve. rewrite Ho1, Ho2. cbn [N.eqb].
  unfold mmu. rewrite Hcr.
  assert (Hio: i * 8 < 4096) by lia.
  destruct (win_idx a b c d (i * 8) Ha Hbb Hc Hd Hio) as (I0 & I1 & I2 & I3).
  rewrite (hw_walk_follow s hw_levels A _ t); [reflexivity| |exact Hb].
  unfold hw_levels. cbn [map]. rewrite I0, I1, I2, I3. exact Hfw.
Qed.

(** a whole-page access at the window address of [pre] lands on the table [pre] leads to *)
Lemma resolve_page_win s A T pre t :
  N.shiftr (cr3 s) 12 = A -> Rec s A T -> (length pre <= 3)%nat -> Forall (fun x => x < 512) pre ->
  follow s T pre = Some t -> backed s t = true ->
  resolve_page s (wwin pre) = Some t.
Proof.
  intros Hcr HR Hl Hp Hf Hb.
  destruct (wpath_shape pre Hl Hp) as (a & b & c & d & Hw & Ha & Hbb & Hc & Hd).
  pose proof (follow_wpath s A T pre t HR Hl Hf) as Hfw.
  unfold wwin. rewrite Hw in *.
  unfold resolve_page. rewrite win_page_aligned by assumption. cbn [N.eqb].
  unfold mmu. rewrite Hcr.
  assert (Hio: 0 < 4096) by lia.
  destruct (win_idx a b c d 0 Ha Hbb Hc Hd Hio) as (I0 & I1 & I2 & I3).
  rewrite N.add_0_r in *.
  rewrite (hw_walk_follow s hw_levels A _ t); [reflexivity| |exact Hb].
  unfold hw_levels. cbn [map]. rewrite I0, I1, I2, I3. exact Hfw.
Qed.

(** * Well-formed trees: ghost ownership of table frames *)
Definition ownmap : Type := N -> option (list N).

Record WF (s : st) (T : N) (own : ownmap) : Prop := {
  wf_arena : lo s + cnt s <= 2 ^ 40;
  wf_root : own T = Some [];
  wf_owned : forall t p, own t = Some p ->
      backed s t = true /\ (length p <= 3)%nat /\ Forall (fun x => x < 512) p /\ hd 0 p <> 511;
  wf_rec : usable (ent s T 511) = true /\ hw_frame (ent s T 511) = T;
  wf_child : forall t p i, own t = Some p -> (length p < 3)%nat -> i < 512 -> p ++ [i] <> [511] ->
      hw_PS (ent s t i) = false /\
      (hw_P (ent s t i) = true -> own (hw_frame (ent s t i)) = Some (p ++ [i]))
}.

Lemma backed_lt40 s f : lo s + cnt s <= 2 ^ 40 -> backed s f = true -> f < 2 ^ 40.
Proof. unfold backed. intros H Hb. apply andb_prop in Hb. destruct Hb as [H1 H2]. lia. Qed.

Lemma path_ne_rec (p : list N) i r : hd 0 (p ++ i :: r) <> 511 -> p ++ [i] <> [511].
Proof.
  intros H E. apply H. change (p ++ i :: r) with (p ++ [i] ++ r). rewrite app_assoc, E. reflexivity.
Qed.

Lemma wf_child_own s T own t p i r :
  WF s T own -> own t = Some p -> (length p < 3)%nat -> i < 512 -> hd 0 (p ++ i :: r) <> 511 ->
  usable (ent s t i) = true -> own (hw_frame (ent s t i)) = Some (p ++ [i]).
Proof.
  intros W Ho Hl Hi Hhd Hu. apply andb_prop in Hu.
  apply (wf_child s T own W t p i Ho Hl Hi (path_ne_rec p i r Hhd)). apply Hu.
Qed.

Lemma follow_own s T own t p is t' :
  WF s T own -> own t = Some p -> follow s t is = Some t' ->
  Forall (fun x => x < 512) is -> (length p + length is <= 3)%nat -> hd 0 (p ++ is) <> 511 ->
  own t' = Some (p ++ is).
Proof.
  intros W. revert t p. induction is as [|i r IH]; intros t p Ho Hf Hlt Hlen Hhd.
  - cbn in Hf. inversion Hf; subst. rewrite app_nil_r. exact Ho.
  - cbn [follow] in Hf. destruct (backed s t); [|discriminate]. cbn [andb] in Hf.
    destruct (usable (ent s t i)) eqn:Hu; [|discriminate].
    inversion Hlt as [|? ? Hi Hr]; subst. cbn [length] in Hlen.
    pose proof (wf_child_own s T own t p i r W Ho ltac:(lia) Hi Hhd Hu) as Hc.
    replace (p ++ i :: r) with ((p ++ [i]) ++ r) in * by (rewrite <- app_assoc; reflexivity).
    apply (IH _ _ Hc Hf Hr).
    + rewrite app_length. cbn [length]. lia.
    + exact Hhd.
Qed.

(** tables of a well-formed tree have usable entries only where present *)
Lemma wf_present_usable s T own t p i :
  WF s T own -> own t = Some p -> (length p < 3)%nat -> i < 512 -> p ++ [i] <> [511] ->
  usable (ent s t i) = hw_P (ent s t i).
Proof.
  intros W Ho Hl Hi Hne. destruct (wf_child s T own W t p i Ho Hl Hi Hne) as [HPS _].
  unfold usable. rewrite HPS. apply andb_true_r.
Qed.

(** [under pre o]: the frame is a table whose path extends [pre] *)
Definition under (pre : list N) (o : option (list N)) : Prop :=
  match o with Some q => firstn (length pre) q = pre | None => False end.

Lemma under_app pre i o : under (pre ++ [i]) o -> under pre o.
Proof.
  destruct o as [q|]; cbn; [|tauto]. intros H.
  rewrite app_length in H. cbn [length] in H.
  assert (E: firstn (length pre) (firstn (length pre + 1) q) = firstn (length pre) (pre ++ [i])) by (rewrite H; reflexivity).
  rewrite firstn_firstn in E. replace (Nat.min (length pre) (length pre + 1)) with (length pre) in E by lia.
  rewrite E. rewrite firstn_app, Nat.sub_diag, firstn_all. cbn. apply app_nil_r.
Qed.

Lemma under_self pre : under pre (Some pre).
Proof. cbn. apply firstn_all. Qed.

Lemma under_ext pre r : under pre (Some (pre ++ r)).
Proof. cbn. rewrite firstn_app, Nat.sub_diag, firstn_all. cbn. apply app_nil_r. Qed.

Lemma not_under_shorter pre q : (length q < length pre)%nat -> ~ under pre (Some q).
Proof.
  cbn. intros Hl H. apply (f_equal (@length N)) in H. rewrite firstn_length in H. lia.
Qed.

Lemma not_under_sibling pre i i' r : i <> i' -> ~ under (pre ++ [i]) (Some (pre ++ i' :: r)).
Proof.
  cbn. intros Hne H. rewrite app_length in H. cbn [length] in H.
  replace (pre ++ i' :: r) with ((pre ++ [i']) ++ r) in H by (rewrite <- app_assoc; reflexivity).
  rewrite firstn_app in H. rewrite app_length in H. cbn [length] in H.
  rewrite Nat.sub_diag in H. cbn [firstn] in H. rewrite app_nil_r in H.
  rewrite firstn_all2 in H by (rewrite app_length; cbn; lia).
  apply app_inj_tail in H. destruct H as [_ H]. congruence.
Qed.

(** * Frame lemmas: a walk only depends on the entries of the tables below its start *)
Lemma follow_frame s s' T own t p is :
  WF s T own -> own t = Some p -> lo s' = lo s -> cnt s' = cnt s ->
  (forall f q i, own f = Some q -> under p (Some q) -> (length q < length p + length is)%nat -> ent s' f i = ent s f i) ->
  Forall (fun x => x < 512) is -> (length p + length is <= 3)%nat -> hd 0 (p ++ is) <> 511 ->
  follow s' t is = follow s t is.
Proof.
  intros W. revert t p. induction is as [|i r IH]; intros t p Ho Hlo Hcnt Hfr Hlt Hlen Hhd; [reflexivity|].
  cbn [follow]. pose proof (backed_eq s s' Hlo Hcnt) as Hbk.
  rewrite Hbk, (Hfr t p i Ho (under_self p)) by (cbn [length]; lia).
  destruct (backed s t && usable (ent s t i)) eqn:E; [|reflexivity].
  apply andb_prop in E. destruct E as [_ Hu].
  inversion Hlt as [|? ? Hi Hr]; subst. cbn [length] in Hlen.
  pose proof (wf_child_own s T own t p i r W Ho ltac:(lia) Hi Hhd Hu) as Hc.
  apply (IH _ (p ++ [i]) Hc Hlo Hcnt).
  - intros f q j Hq Hq' Hlq. apply (Hfr f q j Hq).
    + apply (under_app p i). exact Hq'.
    + rewrite app_length in Hlq. cbn [length] in *. lia.
  - exact Hr.
  - rewrite app_length. cbn [length]. lia.
  - rewrite <- app_assoc. exact Hhd.
Qed.

Lemma look_cons s t i i2 r2 :
  look s t (i :: i2 :: r2) =
  if backed s t && usable (ent s t i) then look s (hw_frame (ent s t i)) (i2 :: r2) else None.
Proof. reflexivity. Qed.

Lemma look_one s t i : look s t [i] = if backed s t then Some (ent s t i) else None.
Proof. reflexivity. Qed.

Lemma look_frame s s' T own t p is :
  WF s T own -> own t = Some p -> lo s' = lo s -> cnt s' = cnt s ->
  (forall f q i, own f = Some q -> under p (Some q) -> (length q < length p + length is)%nat -> ent s' f i = ent s f i) ->
  Forall (fun x => x < 512) is -> (length p + length is <= 4)%nat -> hd 0 (p ++ is) <> 511 ->
  look s' t is = look s t is.
Proof.
  intros W. revert t p. induction is as [|i r IH]; intros t p Ho Hlo Hcnt Hfr Hlt Hlen Hhd; [reflexivity|].
  pose proof (backed_eq s s' Hlo Hcnt) as Hbk.
  destruct r as [|i2 r2].
  - rewrite !look_one. rewrite Hbk, (Hfr t p i Ho (under_self p)) by (cbn [length]; lia). reflexivity.
  - rewrite !look_cons.
    rewrite Hbk, (Hfr t p i Ho (under_self p)) by (cbn [length]; lia).
    destruct (backed s t && usable (ent s t i)) eqn:E; [|reflexivity].
    apply andb_prop in E. destruct E as [_ Hu].
    inversion Hlt as [|? ? Hi Hr]; subst. cbn [length] in Hlen.
    pose proof (wf_child_own s T own t p i (i2 :: r2) W Ho ltac:(lia) Hi Hhd Hu) as Hc.
    apply (IH _ (p ++ [i]) Hc Hlo Hcnt).
    + intros f q j Hq Hq' Hlq. apply (Hfr f q j Hq).
      * apply (under_app p i). exact Hq'.
      * rewrite app_length in Hlq. cbn [length] in *. lia.
    + exact Hr.
    + rewrite app_length. cbn [length] in *. lia.
    + rewrite <- app_assoc. exact Hhd.
Qed.

(** a walk that succeeds keeps succeeding, through the same tables, as long as the present entries of
    upper-level tables are not modified *)
Lemma follow_mono s s' T own t p is l :
  WF s T own -> own t = Some p -> lo s' = lo s -> cnt s' = cnt s ->
  (forall f q i, own f = Some q -> (length q < 3)%nat -> hw_P (ent s f i) = true -> ent s' f i = ent s f i) ->
  Forall (fun x => x < 512) is -> (length p + length is <= 3)%nat -> hd 0 (p ++ is) <> 511 ->
  follow s t is = Some l -> follow s' t is = Some l.
Proof.
  intros W. revert t p. induction is as [|i r IH]; intros t p Ho Hlo Hcnt Hfr Hlt Hlen Hhd Hf; [exact Hf|].
  cbn [follow] in *. pose proof (backed_eq s s' Hlo Hcnt) as Hbk.
  rewrite Hbk.
  destruct (backed s t) eqn:Hb; [|discriminate]. cbn [andb] in *.
  destruct (usable (ent s t i)) eqn:Hu; [|discriminate].
  pose proof Hu as Hu'. unfold usable in Hu'. apply andb_prop in Hu'. destruct Hu' as [HP _].
  cbn [length] in Hlen.
  rewrite (Hfr t p i Ho ltac:(lia) HP), Hu.
  inversion Hlt as [|? ? Hi Hr]; subst.
  pose proof (wf_child_own s T own t p i r W Ho ltac:(lia) Hi Hhd Hu) as Hc.
  apply (IH _ (p ++ [i]) Hc Hlo Hcnt Hfr Hr).
  - rewrite app_length. cbn [length]. lia.
  - rewrite <- app_assoc. exact Hhd.
  - exact Hf.
Qed.

(** present leaf entries only: what a page translates to *)
Definition lookP (s : st) (t : N) (is : list N) : option N :=
  match look s t is with Some e => if hw_P e then Some e else None | None => None end.

Lemma look_ext s s' t is :
  lo s' = lo s -> cnt s' = cnt s -> (forall f i, ent s' f i = ent s f i) -> look s' t is = look s t is.
Proof.
  intros Hlo Hcnt He.
  pose proof (backed_eq s s' Hlo Hcnt) as Hbk.
  revert t. induction is as [|i r IH]; intros t; [reflexivity|].
  destruct r as [|i2 r2].
  - rewrite !look_one, Hbk, He. reflexivity.
  - rewrite !look_cons, Hbk, He. destruct (backed s t && usable (ent s t i)); [apply IH | reflexivity].
Qed.

Lemma follow_ext s s' t is :
  lo s' = lo s -> cnt s' = cnt s -> (forall f i, ent s' f i = ent s f i) -> follow s' t is = follow s t is.
Proof.
  intros Hlo Hcnt He.
  pose proof (backed_eq s s' Hlo Hcnt) as Hbk.
  revert t. induction is as [|i r IH]; intros t; [reflexivity|].
  cbn [follow]. rewrite Hbk, He. destruct (backed s t && usable (ent s t i)); [apply IH | reflexivity].
Qed.

(** a table that is all zero maps nothing *)
Lemma lookP_zero_table s t is : (forall i, ent s t i = 0) -> lookP s t is = None.
Proof.
  intros Hz. unfold lookP. destruct is as [|i [|i2 r2]].
  - reflexivity.
  - rewrite look_one. destruct (backed s t); [|reflexivity]. rewrite Hz. reflexivity.
  - rewrite look_cons. rewrite Hz. unfold usable. cbn. rewrite andb_false_r. reflexivity.
Qed.
