(** C04: MapRegion / IdentityMapRegion on the active address space. *)
From Coq Require Import NArith ZArith Lia List Bool.
From Coq Require Import ZifyBool ZifyN ZifyNat.
From FF Require Import Lib.Word Gen.Consts_mm_vmm Vmm.Region Vmm.RegionProofs Vmm.Pt Vmm.PtMem Vmm.PtArith Vmm.PtTree Vmm.PtMap Vmm.PtOps
     Vmm.PtTheorems Vmm.PtHist Vmm.PtKernel.
Import ListNotations.
Local Open Scope N_scope.

(** the active address space [A] refines the abstract map [m]; the zero-frame guard is not armed *)
Record Hst (s : st) (A : N) (own : ownmap) (m : amap) : Prop := {
  h_inv : Inv s A A own;
  h_prot : prot s = false;
  h_ref : refines s A m
}.

Lemma active_step s A own m page frame flags :
  Hst s A own m -> hw_idx page 0 <> 511 -> frame < 2 ^ 40 -> flags_ok flags ->
  exists s' err own',
    map_page page frame flags s = Ok (s', err) /\ (err = 0 \/ err = E_ALLOC) /\ same_env s s' /\
    Hst s' A own' (if err =? 0 then aupd m (ixs page) (Some (frame, flags)) else m) /\
    (err = 0 -> In (frame_addr page) (flog s')).
Proof.
  intros [HI Hp Href] H511 Hf [Hfl HP].
  assert (Hg: zero_guard s frame flags = false) by (unfold zero_guard; rewrite Hp; reflexivity).
  destruct (map_ok s A A own page frame flags HI H511 Hg) as (s' & err & own' & Hrun & HI' & Henv & Herr & Hok & Hfail & _).
  exists s', err, own'. split; [exact Hrun|]. split; [exact Herr|]. split; [exact Henv|].
  split.
  - split; [exact HI'| rewrite (same_env_prot s s' Henv); exact Hp |].
    intros q Hq. destruct (N.eqb_spec err 0) as [E0|E0].
    + destruct (Hok E0) as (Ha & Hoth & _). rewrite (tr_after_map s s' A page frame flags m Ha Hoth Hf Hfl Href q Hq), HP. reflexivity.
    + destruct (Hfail E0) as (Hoth & _). rewrite (Hoth q Hq). apply Href. exact Hq.
  - intros E0. destruct (Hok E0) as (_ & _ & Hfl'). rewrite Hfl'. left. reflexivity.
Qed.

(** the page loop shared by MapRegion and IdentityMapRegion: the first [j] pages get mapped, [j = n] on
    success; no page outside the requested range changes *)
Lemma active_loop A flags : forall n s own m p0 f0,
  Hst s A own m -> flags_ok flags ->
  (forall j, (j < n)%nat -> hw_idx (p0 + N.of_nat j) 0 <> 511) ->
  p0 + N.of_nat n <= 2 ^ 52 -> f0 + N.of_nat n <= 2 ^ 40 ->
  (exists s' own', iter_nat (map_step (fun p f => map_page p f flags)) n (s, p0, f0) = inl (s', p0 + N.of_nat n, f0 + N.of_nat n) /\
                   Hst s' A own' (mrange m p0 f0 flags n) /\ same_env s s') \/
  (exists s' own' j, iter_nat (map_step (fun p f => map_page p f flags)) n (s, p0, f0) = inr (Some (s', E_ALLOC)) /\
                     (j < n)%nat /\ Hst s' A own' (mrange m p0 f0 flags j) /\ same_env s s').
Proof.
  induction n as [|n IH]; intros s own m p0 f0 HH Hfl H511 Hp Hf.
  - left. exists s, own. cbn [iter_nat mrange N.of_nat]. rewrite !N.add_0_r. split; [reflexivity|]. split; [exact HH | apply same_env_refl].
  - cbn [iter_nat map_step].
    assert (H0: hw_idx p0 0 <> 511) by (specialize (H511 0%nat ltac:(lia)); rewrite N.add_0_r in H511; exact H511).
    destruct (active_step s A own m p0 f0 flags HH H0 ltac:(lia) Hfl) as (s1 & err & own1 & Hrun & Herr & Henv & HH1 & _).
    rewrite Hrun.
    destruct (N.eqb_spec err 0) as [E0|E0].
    + assert (Ew1: w64 (p0 + 1) = p0 + 1) by (apply w64_incr; lia).
      assert (Ew2: w64 (f0 + 1) = f0 + 1) by (apply w64_incr; change (2 ^ 40) with 1099511627776 in Hf; change (2 ^ 52) with 4503599627370496; lia).
      rewrite Ew1, Ew2.
      destruct (IH s1 own1 _ (p0 + 1) (f0 + 1) HH1 Hfl) as [(s' & own' & Hr & HH' & He') | (s' & own' & j & Hr & Hj & HH' & He')].
      * intros j Hj. replace (p0 + 1 + N.of_nat j) with (p0 + N.of_nat (S j)) by lia. apply H511. lia.
      * lia.
      * lia.
      * left. exists s', own'. rewrite Hr. replace (p0 + 1 + N.of_nat n) with (p0 + N.of_nat (S n)) by lia.
        replace (f0 + 1 + N.of_nat n) with (f0 + N.of_nat (S n)) by lia.
        split; [reflexivity|]. split; [exact HH' | eapply same_env_trans; eassumption].
      * right. exists s', own', (S j). rewrite Hr. split; [reflexivity|]. split; [lia|]. split; [exact HH' | eapply same_env_trans; eassumption].
    + right. destruct Herr as [E|E]; [congruence|]. subst err. exists s1, own1, 0%nat. split; [reflexivity|]. split; [lia|].
      split; [exact HH1 | exact Henv].
Qed.

Definition loop_result (start : N) (x : loop_state + loop_exit) : R (st * N * N) :=
  match x with
  | inl (s1, _, _) => Ok (s1, E_OK, start)
  | inr None => Stray
  | inr (Some (s1, err)) => Ok (s1, err, 0)
  end.

(** MapRegion in closed form: the reservation is [reserve_spec]'s (C07) and stays page-aligned below the temporary
    mapping *)
Lemma map_region_unfold frame size flags s :
  size < two64 -> WFstart (last s) ->
  match reserve_spec (last s) size with
  | None => map_region frame size flags s = Ok (s, E_NOSPACE, 0)
  | Some (a0, _) =>
      map_region frame size flags s =
      loop_result (a0 / 4096)
        (iter_nat (map_step (fun p f => map_page p f flags)) (N.to_nat (ceil_pages size)) (set_last s a0, a0 / 4096, frame)) /\
      WFstart a0 /\ a0 / 4096 + ceil_pages size <= 2 ^ 52
  end.
Proof.
  intros Hs [Hm Hl]. unfold map_region. rewrite round_up_ltb by exact Hs.
  pose proof temp_lt as Ht. rewrite PageSize_val in Hm.
  assert (Hc: size + 4095 < two64 -> ceil_pages (round_up size) = ceil_pages size).
  { intros H. rewrite (round_up_nowrap size H). unfold ceil_pages. lia. }
  unfold reserve_spec. destruct (N.leb_spec (ceil_pages size * 4096) (last s)) as [Hfit|Hfit].
  - assert (Hs': size + 4095 < two64) by (unfold ceil_pages, vmm_tempMappingAddr, two64 in *; lia).
    destruct (N.leb_spec two64 (size + 4095)) as [H|_]; [lia|].
    pose proof (round_up_ge size Hs') as (H1 & H2 & H3).
    rewrite early_reserve_spec by lia. unfold reserve_spec. rewrite (Hc Hs').
    destruct (N.leb_spec (ceil_pages size * 4096) (last s)) as [_|H]; [|lia].
    rewrite shiftr_round_up, page_from_addr_shr, N.shiftr_div_pow2, iter_n_nat by exact Hs'.
    split; [reflexivity|]. unfold WFstart. rewrite PageSize_val.
    unfold vmm_tempMappingAddr, two64 in *. change (2 ^ 52) with 4503599627370496. lia.
  - destruct (N.leb_spec two64 (size + 4095)) as [H|H]; [reflexivity|].
    pose proof (round_up_ge size H) as (H1 & H2 & H3).
    rewrite early_reserve_spec by lia. unfold reserve_spec. rewrite (Hc H).
    destruct (N.leb_spec (ceil_pages size * 4096) (last s)) as [H4|_]; [lia | reflexivity].
Qed.

(** IdentityMapRegion in closed form: [start + count] does not wrap, so the loop runs [count] times *)
Lemma identity_map_region_unfold frame size flags s :
  size + 4095 < two64 -> frame + ceil_pages size <= 2 ^ 40 ->
  identity_map_region frame size flags s =
  loop_result frame (iter_nat (map_step (fun p f => map_page p f flags)) (N.to_nat (ceil_pages size)) (s, frame, frame)).
Proof.
  intros Hs Hf. unfold identity_map_region. rewrite round_up_ltb by lia.
  destruct (N.leb_spec two64 (size + 4095)) as [H|_]; [lia|].
  rewrite shiftr_round_up by exact Hs.
  rewrite w64_small by (unfold two64; change (2 ^ 40) with 1099511627776 in Hf; lia).
  replace (if frame <? frame + ceil_pages size then frame + ceil_pages size - frame else 0) with (ceil_pages size)
    by (destruct (N.ltb_spec frame (frame + ceil_pages size)); lia).
  rewrite iter_n_nat. reflexivity.
Qed.

(** MapRegion: reserves [ceil(size/4096)] pages below the cursor and maps them, consecutively, onto
    the frames from [frame]; a size that does not fit reserves and maps nothing.  On allocator failure
    some prefix of the pages is mapped and no page outside the region changes. *)
Theorem active_map_region_ok s A own m frame size flags :
  Hst s A own m -> flags_ok flags -> size < two64 -> WFstart (last s) ->
  match reserve_spec (last s) size with
  | None => map_region frame size flags s = Ok (s, E_NOSPACE, 0)
  | Some (a, len) =>
      let start := a / 4096 in let n := N.to_nat (ceil_pages size) in
      (forall j, (j < n)%nat -> hw_idx (start + N.of_nat j) 0 <> 511) -> frame + N.of_nat n <= 2 ^ 40 ->
      exists s' err page own' j,
        map_region frame size flags s = Ok (s', err, page) /\ last s' = a /\ (j <= n)%nat /\
        Hst s' A own' (mrange m start frame flags j) /\
        ((err = 0 /\ j = n /\ page = start) \/ (err = E_ALLOC /\ (j < n)%nat /\ page = 0))
  end.
Proof.
  intros HH Hfl Hs HW. pose proof (map_region_unfold frame size flags s Hs HW) as Hrun.
  destruct (reserve_spec (last s) size) as [[a len]|]; [|exact Hrun].
  destruct Hrun as (Hrun & _ & Hp52). cbv zeta. intros H511 Hf. rewrite Hrun.
  set (n := N.to_nat (ceil_pages size)) in *.
  assert (HH0: Hst (set_last s a) A own m).
  { destruct HH as [HI Hp Href]. split; [apply (Inv_ent_eq s _ A A own HI); reflexivity | exact Hp | exact Href]. }
  rewrite <- (N2Nat.id (ceil_pages size)) in Hp52. fold n in Hp52.
  destruct (active_loop A flags n (set_last s a) own m (a / 4096) frame HH0 Hfl H511 Hp52 Hf) as
      [(s' & own' & Hr & HH' & He') | (s' & own' & j & Hr & Hj & HH' & He')]; rewrite Hr;
    pose proof (same_env_last _ _ He') as E5.
  - exists s', 0, (a / 4096), own', n. split; [reflexivity|]. split; [exact E5|].
    split; [lia|]. split; [exact HH'|]. left. repeat split.
  - exists s', E_ALLOC, 0, own', j. split; [reflexivity|]. split; [exact E5|].
    split; [lia|]. split; [exact HH'|]. right. repeat split. exact Hj.
Qed.

(** IdentityMapRegion: pages [frame .. frame+ceil(size/4096)) onto the frames of the same number *)
Theorem active_identity_map_region_ok s A own m frame size flags :
  Hst s A own m -> flags_ok flags -> size + 4095 < two64 ->
  let n := N.to_nat (ceil_pages size) in
  (forall j, (j < n)%nat -> hw_idx (frame + N.of_nat j) 0 <> 511) -> frame + N.of_nat n <= 2 ^ 40 ->
  exists s' err page own' j,
    identity_map_region frame size flags s = Ok (s', err, page) /\ last s' = last s /\ (j <= n)%nat /\
    Hst s' A own' (mrange m frame frame flags j) /\
    ((err = 0 /\ j = n /\ page = frame) \/ (err = E_ALLOC /\ (j < n)%nat /\ page = 0)).
Proof.
  intros HH Hfl Hs n H511 Hf.
  assert (Hcnt: N.of_nat n = ceil_pages size) by (unfold n; apply N2Nat.id).
  rewrite identity_map_region_unfold by (rewrite <- ?Hcnt; assumption). fold n.
  assert (Hp52: frame + N.of_nat n <= 2 ^ 52) by (change (2 ^ 40) with 1099511627776 in Hf; change (2 ^ 52) with 4503599627370496; lia).
  destruct (active_loop A flags n s own m frame frame HH Hfl H511 Hp52 Hf) as
      [(s' & own' & Hr & HH' & He') | (s' & own' & j & Hr & Hj & HH' & He')]; rewrite Hr;
    pose proof (same_env_last _ _ He') as E5.
  - exists s', 0, frame, own', n. split; [reflexivity|].
    split; [exact E5|]. split; [lia|]. split; [exact HH'|]. left. repeat split.
  - exists s', E_ALLOC, 0, own', j. split; [reflexivity|].
    split; [exact E5|]. split; [lia|]. split; [exact HH'|]. right. repeat split. exact Hj.
Qed.
