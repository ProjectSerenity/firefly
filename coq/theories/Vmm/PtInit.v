(** The boot state of a case satisfies the invariant (non-vacuity of every C04-C06 theorem). *)
From Coq Require Import NArith ZArith Lia List Bool FMapPositive.
From Coq Require Import ZifyBool ZifyN ZifyNat.
From FF Require Import Lib.Word Gen.Consts_mm_vmm Vmm.Region Vmm.Pt Vmm.PtMem Vmm.PtArith Vmm.PtTree Vmm.PtMap.
Import ListNotations.
Local Open Scope N_scope.

Definition own_root (root : N) : ownmap := fun f => if f =? root then Some [] else None.

Lemma rec_entry_ok f : f < 2 ^ 40 ->
  usable (N.lor (N.shiftl f 12) 3) = true /\ hw_frame (N.lor (N.shiftl f 12) 3) = f.
Proof.
  intros H.
  assert (H52: f < 2 ^ 52) by (change (2 ^ 40) with 1099511627776 in H; change (2 ^ 52) with 4503599627370496; lia).
  destruct (link_entry f H) as (L1 & L2 & L3).
  rewrite mk_entry_val in * by exact H52. rewrite P_RW_val in *.
  unfold usable. rewrite L1, L2, L3. split; reflexivity.
Qed.

Lemma Inv_init lo0 cnt0 last0 oracle :
  0 < cnt0 -> lo0 + cnt0 <= 2 ^ 40 ->
  NoDup (ofr oracle) -> (forall f, In f oracle -> f <> 0 -> lo0 < f /\ f < lo0 + cnt0) ->
  Inv (init_state lo0 cnt0 last0 oracle) lo0 lo0 (own_root lo0).
Proof.
  intros Hc Har Hnd Hor.
  set (s := init_state lo0 cnt0 last0 oracle).
  assert (Hlo40: lo0 < 2 ^ 40) by lia.
  assert (He: forall f i, ent s f i = if (f =? lo0) && (i =? 511) then N.lor (N.shiftl lo0 12) 3
                                      else if f =? lo0 then 0 else ent s f i).
  { intros f i. unfold ent, s, init_state. cbn [mem]. rewrite rd_wr.
    destruct ((f =? lo0) && (i =? 511)); [reflexivity|]. rewrite rd_zero.
    destruct (f =? lo0); reflexivity. }
  assert (Hbk: forall f, backed s f = (lo0 <=? f) && (f <? lo0 + cnt0)) by reflexivity.
  assert (Hcr: N.shiftr (cr3 s) 12 = lo0).
  { unfold s, init_state. cbn [cr3]. rewrite N.shiftr_shiftl_l by lia. replace (12 - 12) with 0 by lia. apply N.shiftl_0_r. }
  assert (Hb0: backed s lo0 = true) by (rewrite Hbk; lia).
  destruct (rec_entry_ok lo0 Hlo40) as [U1 U2].
  assert (E511: ent s lo0 511 = N.lor (N.shiftl lo0 12) 3).
  { rewrite He, !N.eqb_refl. reflexivity. }
  split.
  - split.
    + exact Har.
    + unfold own_root. rewrite N.eqb_refl. reflexivity.
    + intros t p. unfold own_root. destruct (N.eqb_spec t lo0) as [->|]; [|discriminate].
      intros E; inversion E as [Ep]. split; [exact Hb0|]. split; [cbn; lia|]. split; [constructor | cbn; lia].
    + rewrite E511. split; assumption.
    + intros t p i. unfold own_root at 1. destruct (N.eqb_spec t lo0) as [->|]; [|discriminate].
      intros E Hl Hi Hne; inversion E as [Ep]. rewrite <- Ep in *. cbn [app] in Hne.
      assert (i <> 511) by (intros E2; rewrite E2 in Hne; apply Hne; reflexivity).
      rewrite He, N.eqb_refl. destruct (N.eqb_spec i 511); [congruence|]. cbn [andb].
      split; [reflexivity | discriminate].
  - exact Hcr.
  - unfold Rec. rewrite Hb0, E511, U1, U2. repeat split.
  - left. reflexivity.
  - split.
    + exact Hnd.
    + intros f Hin Hz. destruct (Hor f Hin Hz) as [H1 H2]. rewrite Hbk. split; [lia|]. split; [|lia].
      unfold own_root. destruct (N.eqb_spec f lo0); [lia|reflexivity].
Qed.
