(** The hand-written models of PageDirectoryTable.{Init,Map,Unmap,Activate} (Vmm/Pt.v: [pdt_init], [pdt_map],
    [pdt_unmap], [pdt_activate]) against the Gallina translation that gen/gotrans ("memory as state" mode,
    gen/gotrans/ext_mem.go, config vmm_pdt.json) regenerates from kernel/mm/vmm/pdt.go on every run
    (Gen/Trans_vmm_pdt.v).

    The translation threads a record [world] = (trace of the calls through the function-variable seams, the model's
    machine state [st] as the MEMORY).  A raw pointer is an address; [*p], [*p = e], [p.SetFrame(f)], [p.SetFlags(f)]
    are loads and stores by Vmm/PtAccess.v (Init: virtual accesses resolved by the MMU model from cr3 at the time of
    each access; Map / Unmap: physical accesses through the identity window).  A call through a seam is recorded on the
    trace and its effect on the state and its results come from a stateful oracle; the oracles below are the model's
    environment: activePDTFn reads cr3, flushTLBEntryFn / switchPDTFn log, mapFn / unmapFn / mapTemporaryFn are the
    model's [map_page] / [unmap_page] / [map_temporary], kernel.Memset of one page is the model's page-zeroing step
    (kernel.Memset itself: Props/C06_mem.v).  A stray access of the model ([Stray]) is [GPanic] of the translation. *)
From Coq Require Import NArith ZArith String List Bool Lia FMapPositive.
From Coq Require Import ZifyBool ZifyN ZifyNat.
From FF Require Import Lib.Word Lib.GoOps Lib.GoOpsProofs Gen.Consts_mm_vmm Gen.Trans_vmm_pdt.
From FF Require Import Vmm.Pt Vmm.PtMem Vmm.PtAccess.
From FF Require Vmm.PtTrans Vmm.PtArith.
Import ListNotations.
Local Open Scope N_scope.

Notation W := mk_go_vmm_world (only parsing).

(** error values: the model's codes <-> the translation's tags (nil = None) *)
Definition err_name (e : N) : string :=
  if e =? E_INVALID then "ErrInvalidMapping"
  else if e =? E_HUGE then "errNoHugePageSupport"
  else if e =? E_ZERO_RW then "errAttemptToRWMapReservedFrame"
  else if e =? E_ALLOC then "errAllocFrame"
  else if e =? E_NOSPACE then "errEarlyReserveNoSpace"
  else if e =? E_FAULT then "errUnrecoverableFault"
  else "errOther".
Definition err_of (e : N) : option string := if e =? 0 then None else Some (err_name e).

(** ---- the oracles of the model's environment ---- *)
Definition lift_op (r : R (st * N)) : option (st * option string) :=
  match r with Stray => None | Ok (s', e) => Some (s', err_of e) end.

Definition o_active (_ : list gcall) (s : st) : option (st * N) := Some (s, cr3 s).
Definition o_flush (tr : list gcall) (s : st) : option (st * unit) :=
  match tr with GCall _ [GNum a] :: _ => Some (flush s a, tt) | _ => None end.
Definition o_switch (tr : list gcall) (s : st) : option (st * unit) :=
  match tr with GCall _ [GNum a] :: _ => Some (set_slog (set_cr3 s a) (a :: slog s), tt) | _ => None end.
Definition o_map (tr : list gcall) (s : st) : option (st * option string) :=
  match tr with GCall _ [GNum p; GNum f; GNum fl] :: _ => lift_op (map_page p f fl s) | _ => None end.
Definition o_unmap (tr : list gcall) (s : st) : option (st * option string) :=
  match tr with GCall _ [GNum p] :: _ => lift_op (unmap_page p s) | _ => None end.
Definition o_maptemp (tr : list gcall) (s : st) : option (st * (N * option string)) :=
  match tr with
  | GCall _ [GNum f] :: _ =>
      match map_temporary f s with Stray => None | Ok (s', e, p) => Some (s', (p, err_of e)) end
  | _ => None
  end.
(** kernel.Memset(addr, 0, mm.PageSize) of a mapped page: the model's page-zeroing step; anything else is outside the model *)
Definition o_memset (tr : list gcall) (s : st) : option (st * unit) :=
  match tr with
  | GCall _ [GNum a; GNum x; GNum n] :: _ =>
      if (x =? 0) && (n =? mm_PageSize) then
        match resolve_page s a with Some pf => Some (set_mem s (zero (mem s) pf), tt) | None => None end
      else None
  | _ => None
  end.

Definition ev_active : gcall := GCall "activePDTFn" [].
Definition ev_flush (a : N) : gcall := GCall "flushTLBEntryFn" [GNum a].
Definition ev_switch (a : N) : gcall := GCall "switchPDTFn" [GNum a].
Definition ev_map (p f fl : N) : gcall := GCall "mapFn" [GNum p; GNum f; GNum fl].
Definition ev_unmap (p : N) : gcall := GCall "unmapFn" [GNum p].
Definition ev_maptemp (f : N) : gcall := GCall "mapTemporaryFn" [GNum f].
Definition ev_memset (a : N) : gcall := GCall "kernel.Memset" [GNum a; GNum 0; GNum mm_PageSize].

(** every word of the memory is a 64-bit word *)
Definition mem_w64 (s : st) : Prop := forall f i, rd (mem s) f i < two64.

(** ---- what the mapping operations keep: the arena and the width of the words ---- *)
Definition keeps (s s' : st) : Prop := lo s' = lo s /\ cnt s' = cnt s /\ (mem_w64 s -> mem_w64 s').

Lemma keeps_refl s : keeps s s.
Proof. repeat split; auto. Qed.

Lemma keeps_trans s1 s2 s3 : keeps s1 s2 -> keeps s2 s3 -> keeps s1 s3.
Proof. intros (A1 & A2 & A3) (B1 & B2 & B3). repeat split; try congruence. auto. Qed.

Lemma keeps_wr_w s f i x : (mem_w64 s -> x < two64) -> keeps s (wr_st s f i x).
Proof.
  intros Hx. repeat split. intros H f' i'. unfold wr_st, set_mem. cbn [mem]. rewrite rd_wr.
  destruct ((f' =? f) && (i' =? i)); [exact (Hx H) | apply H].
Qed.

Lemma keeps_wr s f i x : x < two64 -> keeps s (wr_st s f i x).
Proof. intros Hx. apply keeps_wr_w. intros _. exact Hx. Qed.

Lemma keeps_zero s f : keeps s (set_mem s (zero (mem s) f)).
Proof.
  repeat split. intros H f' i'. unfold set_mem. cbn [mem]. rewrite rd_zero.
  destruct (f' =? f); [reflexivity | apply H].
Qed.

Lemma keeps_flush s a : keeps s (flush s a).
Proof. repeat split. intros H. exact H. Qed.

Lemma keeps_alloc s s1 r : alloc s = (s1, r) -> keeps s s1.
Proof.
  unfold alloc. destruct (orc s) as [|x rest]; intros E; injection E as <- _; [apply keeps_refl|].
  repeat split. intros H. exact H.
Qed.

(** The mapping operations overwrite words (with 64-bit values, as long as the memory holds 64-bit words), zero frames, log TLB flushes,
    take frames from the allocator and record a table in a slot.  Whatever all of these steps leave alone, the
    operations leave alone: [evolves_keeps] below, the reservation cursor in Vmm/KernelTrans.v. *)
Inductive evolves : st -> st -> Prop :=
| evolves_refl s : evolves s s
| evolves_trans s1 s2 s3 : evolves s1 s2 -> evolves s2 s3 -> evolves s1 s3
| evolves_wr s f i x : (mem_w64 s -> x < two64) -> evolves s (wr_st s f i x)
| evolves_zero s f : evolves s (set_mem s (zero (mem s) f))
| evolves_flush s a : evolves s (flush s a)
| evolves_alloc s s1 r : alloc s = (s1, r) -> evolves s s1
| evolves_pdt s slot f : evolves s (set_pdt s slot f).

Lemma evolves_keeps s s' : evolves s s' -> keeps s s'.
Proof.
  induction 1 as [s|s1 s2 s3 _ K1 _ K2|s f i x Hx|s f|s a|s s1 r Ea|s slot f].
  - apply keeps_refl.
  - exact (keeps_trans _ _ _ K1 K2).
  - apply keeps_wr_w. exact Hx.
  - apply keeps_zero.
  - apply keeps_flush.
  - exact (keeps_alloc _ _ _ Ea).
  - repeat split. intros H. exact H.
Qed.

Lemma set_frame_lt e f : e < two64 -> set_frame e f < two64.
Proof.
  intros He. unfold set_frame, andnot, frame_addr, shl64.
  apply PtTrans.lor_lt; [apply PtTrans.ldiff_lt; exact He | apply w64_lt].
Qed.

Lemma set_flags_lt e fl : e < two64 -> fl < two64 -> set_flags e fl < two64.
Proof. intros He Hf. unfold set_flags. apply PtTrans.lor_lt; assumption. Qed.

Lemma clear_flags_lt e fl : e < two64 -> clear_flags e fl < two64.
Proof. intros He. unfold clear_flags, andnot. apply PtTrans.ldiff_lt; exact He. Qed.

Lemma zero_lt : 0 < two64.
Proof. reflexivity. Qed.

Lemma P_RW_lt : P_RW < two64.
Proof. reflexivity. Qed.

Lemma link_lt f fl : fl < two64 -> set_flags (set_frame 0 f) fl < two64.
Proof. intros Hfl. apply set_flags_lt; [apply set_frame_lt; apply zero_lt | exact Hfl]. Qed.

Lemma map_walk_evolves lv : forall level ta va fr fl s s' e, fl < two64 ->
  map_walk lv level ta va fr fl s = Ok (s', e) -> evolves s s'.
Proof.
  induction lv as [|[sh bits] rest IH]; intros level ta va fr fl s s' e Hfl; cbn [map_walk].
  - intros E; injection E as <- _. apply evolves_refl.
  - destruct (resolve s _) as [[f i]|]; [|discriminate].
    destruct (level =? last_level).
    { intros E; injection E as <- _.
      eapply evolves_trans; [apply evolves_wr; intros _; apply link_lt; exact Hfl | apply evolves_flush]. }
    destruct (has_flags _ vmm_FlagHugePage). { intros E; injection E as <- _. apply evolves_refl. }
    destruct (negb _); [|apply IH; exact Hfl].
    destruct (alloc s) as [s1 [nf|]] eqn:Ea.
    2:{ intros E; injection E as <- _. exact (evolves_alloc _ _ _ Ea). }
    destruct (resolve_page _ _) as [pf|]; [|discriminate].
    intros E. apply IH in E; [|exact Hfl].
    eapply evolves_trans; [exact (evolves_alloc _ _ _ Ea)|].
    eapply evolves_trans; [apply (evolves_wr s1 f i); intros _; apply link_lt; apply P_RW_lt|].
    eapply evolves_trans; [apply evolves_zero | exact E].
Qed.

Lemma map_page_evolves p f fl s s' e : fl < two64 -> map_page p f fl s = Ok (s', e) -> evolves s s'.
Proof.
  intros Hfl. unfold map_page. destruct (_ && _ && _).
  - intros E; injection E as <- _. apply evolves_refl.
  - apply map_walk_evolves. exact Hfl.
Qed.

Lemma unmap_walk_evolves lv : forall level ta va s s' e,
  unmap_walk lv level ta va s = Ok (s', e) -> evolves s s'.
Proof.
  induction lv as [|[sh bits] rest IH]; intros level ta va s s' e; cbn [unmap_walk].
  - intros E; injection E as <- _. apply evolves_refl.
  - destruct (resolve s _) as [[f i]|]; [|discriminate].
    destruct (level =? last_level).
    { intros E; injection E as <- _.
      eapply evolves_trans; [apply evolves_wr; intros H; apply clear_flags_lt; apply H | apply evolves_flush]. }
    destruct (negb _). { intros E; injection E as <- _. apply evolves_refl. }
    destruct (has_flags _ _). { intros E; injection E as <- _. apply evolves_refl. }
    apply IH.
Qed.

Lemma unmap_page_evolves p s s' e : unmap_page p s = Ok (s', e) -> evolves s s'.
Proof. apply unmap_walk_evolves. Qed.

Lemma map_temporary_evolves f s s' e p : map_temporary f s = Ok (s', e, p) -> evolves s s'.
Proof.
  unfold map_temporary. destruct (_ && _). { intros E; injection E as <- _ _. apply evolves_refl. }
  destruct (map_page _ _ _ _) as [[s1 err]|] eqn:Em; [|discriminate].
  apply map_page_evolves in Em; [|apply P_RW_lt].
  destruct (err =? 0); intros E; injection E as <- _ _; exact Em.
Qed.

Lemma pdt_init_evolves slot frame s s' e : pdt_init slot frame s = Ok (s', e) -> evolves s s'.
Proof.
  unfold pdt_init. set (s0 := set_pdt s slot frame).
  assert (K0 : evolves s s0) by apply evolves_pdt.
  destruct (_ =? _). { intros E; injection E as <- _. exact K0. }
  destruct (map_temporary frame s0) as [[[s1 err] page]|] eqn:Emt; [|discriminate].
  apply map_temporary_evolves in Emt.
  destruct (negb _). { intros E; injection E as <- _. exact (evolves_trans _ _ _ K0 Emt). }
  destruct (resolve_page s1 _) as [pf|]; [|discriminate].
  destruct (resolve s1 _) as [[ef ei]|]; [|discriminate].
  destruct (unmap_page _ _) as [[s4 e4]|] eqn:Eu; [|discriminate].
  intros E; injection E as <- _.
  apply unmap_page_evolves in Eu.
  eapply evolves_trans; [exact K0|]. eapply evolves_trans; [exact Emt|].
  eapply evolves_trans; [apply evolves_zero|]. eapply evolves_trans; [|exact Eu].
  apply evolves_wr. intros _. apply set_frame_lt. apply set_flags_lt; [apply zero_lt | apply P_RW_lt].
Qed.

Lemma with_pdt_evolves slot op s s' e :
  (forall a b c, op a = Ok (b, c) -> evolves a b) -> with_pdt slot op s = Ok (s', e) -> evolves s s'.
Proof.
  intros Hop. unfold with_pdt. destruct (_ =? _); [apply Hop|].
  destruct (phys s _) as [[f i]|]; [|discriminate].
  match goal with |- context [op ?a] => destruct (op a) as [[s2 err]|] eqn:Eo; [|discriminate] end.
  intros E; injection E as <- _. apply Hop in Eo.
  eapply evolves_trans; [apply evolves_wr; intros Hw; apply set_frame_lt; apply Hw|].
  eapply evolves_trans; [apply evolves_flush|]. eapply evolves_trans; [exact Eo|].
  eapply evolves_trans; [apply evolves_wr; intros Hw; apply set_frame_lt; apply Hw | apply evolves_flush].
Qed.

Lemma pdt_map_evolves slot p f fl s s' e : fl < two64 -> pdt_map slot p f fl s = Ok (s', e) -> evolves s s'.
Proof. intros Hfl. apply with_pdt_evolves. intros a b c. apply map_page_evolves. exact Hfl. Qed.

Lemma pdt_unmap_evolves slot p s s' e : pdt_unmap slot p s = Ok (s', e) -> evolves s s'.
Proof. apply with_pdt_evolves. intros a b c. apply unmap_page_evolves. Qed.

Lemma map_page_keeps p f fl s s' e : fl < two64 -> map_page p f fl s = Ok (s', e) -> keeps s s'.
Proof. intros Hfl E. exact (evolves_keeps _ _ (map_page_evolves _ _ _ _ _ _ Hfl E)). Qed.

Lemma unmap_page_keeps p s s' e : unmap_page p s = Ok (s', e) -> keeps s s'.
Proof. intros E. exact (evolves_keeps _ _ (unmap_page_evolves _ _ _ _ E)). Qed.

Lemma map_temporary_keeps f s s' e p : map_temporary f s = Ok (s', e, p) -> keeps s s'.
Proof. intros E. exact (evolves_keeps _ _ (map_temporary_evolves _ _ _ _ _ E)). Qed.

Lemma phys_keeps s s' a : lo s' = lo s -> cnt s' = cnt s -> phys s' a = phys s a.
Proof. intros H1 H2. unfold phys, backed. rewrite H1, H2. reflexivity. Qed.

(** Every translation unit has its own copy of the helpers of pdt.go and page.go, regenerated from the same source and hence the same term: what is
    proved of one copy holds of the others by conversion.  The frame argument needs no bound (its address is cut to
    64 bits). *)
Lemma frame_addr_any f : go_mm_Frame_Address f = frame_addr f.
Proof. unfold go_mm_Frame_Address, frame_addr, shl64. rewrite !gw64. apply w64_small. apply w64_lt. Qed.

Lemma page_addr_any f : go_mm_Page_Address f = frame_addr f.
Proof. exact (frame_addr_any f). Qed.

Lemma set_frame_any e f : e < two64 -> go_vmm_pageTableEntry_SetFrame e f = set_frame e f.
Proof.
  intros He. unfold go_vmm_pageTableEntry_SetFrame, set_frame, andnot. rewrite frame_addr_any.
  rewrite (gw64_small e He). apply gw64_small. apply set_frame_lt. exact He.
Qed.

Lemma set_flags_any e fl : e < two64 -> fl < two64 -> go_vmm_pageTableEntry_SetFlags e fl = set_flags e fl.
Proof. intros He Hf. apply (PtTrans.pte_helpers_are_translation e fl 0 He Hf zero_lt). Qed.

(* projections of this unit's world record (each translation unit has its own record and hence its own [wsimp]) *)
Ltac wsimp := cbn [f_world_trace f_world_mem set_f_world_trace set_f_world_mem].

(** ---- PageDirectoryTable.Map / Unmap ---- *)
Definition pdt_res (tr0 : list gcall) (active : bool) (lea : N) (ev : gcall) (r : R (st * N)) : gres (go_vmm_world * option string) :=
  match r with
  | Stray => GPanic
  | Ok (s', e) => GOk (W ((if active then [ev] else [ev_flush lea; ev; ev_flush lea]) ++ ev_active :: tr0) s', err_of e)
  end.

Lemma last_entry_off_val : last_entry_off = 4088.
Proof. exact PtArith.last_entry_off_val. Qed.

Lemma lea_trans af :
  gw 64 (go_mm_Frame_Address af + N.shiftl (N.shiftl 1 9 - 1) mm_PointerShift) = add64 (frame_addr af) last_entry_off.
Proof. rewrite frame_addr_any, gw64. reflexivity. Qed.

(** one half of the bracket Map and Unmap put around their call: the recursive slot of the active root (the word at
    [lea], accessed through the identity window) is pointed at table [x] and its TLB entry flushed; [K] is the rest of
    the function *)
Lemma swing_slot {A} (K : go_vmm_world -> gres A) tr s lea x :
  mem_w64 s ->
  match go_vmm_world_load_phys (W tr s) lea with None => GPanic | Some t =>
  match go_vmm_world_store_phys (W tr s) lea (go_vmm_pageTableEntry_SetFrame t x) with None => GPanic | Some w =>
  match go_vmm_world_seam w (GCall "flushTLBEntryFn" [GNum lea]) o_flush with None => GPanic | Some (w', _) => K w'
  end end end =
  match phys s lea with
  | None => GPanic
  | Some (f, i) => K (W (ev_flush lea :: tr) (flush (wr_st s f i (set_frame (rd (mem s) f i) x)) lea))
  end.
Proof.
  intros Hw. unfold go_vmm_world_load_phys, go_vmm_world_store_phys, pload, pstore. wsimp.
  destruct (phys s lea) as [[f i]|]; [|reflexivity].
  rewrite (set_frame_any _ x (Hw f i)). reflexivity.
Qed.

(** the whole bracket - to table [pf], the call [c] answered by the oracle with the model's [op], back to [af] - is
    [with_pdt]; [ret] is what the function returns of the final world and the error *)
Lemma with_pdt_swings {A} (ret : go_vmm_world -> option string -> gres A) c o op tr s lea pf af :
  mem_w64 s -> (forall t a, o (c :: t) a = lift_op (op a)) -> (forall a b e, op a = Ok (b, e) -> evolves a b) ->
  match go_vmm_world_load_phys (W tr s) lea with None => GPanic | Some t =>
  match go_vmm_world_store_phys (W tr s) lea (go_vmm_pageTableEntry_SetFrame t pf) with None => GPanic | Some w =>
  match go_vmm_world_seam w (GCall "flushTLBEntryFn" [GNum lea]) o_flush with None => GPanic | Some (w, _) =>
  match go_vmm_world_seam w c o with None => GPanic | Some (w, err) =>
  match go_vmm_world_load_phys w lea with None => GPanic | Some t =>
  match go_vmm_world_store_phys w lea (go_vmm_pageTableEntry_SetFrame t af) with None => GPanic | Some w =>
  match go_vmm_world_seam w (GCall "flushTLBEntryFn" [GNum lea]) o_flush with None => GPanic | Some (w, _) => ret w err
  end end end end end end end =
  match phys s lea with
  | None => GPanic
  | Some (f, i) =>
      match op (flush (wr_st s f i (set_frame (rd (mem s) f i) pf)) lea) with
      | Stray => GPanic
      | Ok (s2, e) => ret (W (ev_flush lea :: c :: ev_flush lea :: tr) (flush (wr_st s2 f i (set_frame (rd (mem s2) f i) af)) lea)) (err_of e)
      end
  end.
Proof.
  intros Hw Ho Hop. rewrite swing_slot by exact Hw.
  destruct (phys s lea) as [[f i]|] eqn:Eph; [|reflexivity].
  unfold go_vmm_world_seam at 1. wsimp. rewrite Ho.
  set (s1 := flush _ lea).
  destruct (op s1) as [[s2 e]|] eqn:Eo; cbn [lift_op]; [|reflexivity].
  unfold set_f_world_mem, set_f_world_trace. wsimp.
  assert (K : keeps s s2).
  { apply evolves_keeps. eapply evolves_trans; [|exact (Hop _ _ _ Eo)].
    eapply evolves_trans; [apply evolves_wr; intros H; apply set_frame_lt; apply H | apply evolves_flush]. }
  destruct K as (K1 & K2 & K3).
  rewrite (swing_slot (fun w => ret w (err_of e)) _ s2 lea af (K3 Hw)), (phys_keeps s s2 lea K1 K2), Eph. reflexivity.
Qed.

Theorem pdt_map_is_translation slot page frame flags s tr0 :
  mem_w64 s -> cr3 s < two64 -> pdts s slot < two64 -> flags < two64 ->
  go_vmm_PageDirectoryTable_Map (W tr0 s) (pdts s slot) page frame flags o_active o_flush o_map =
  pdt_res tr0 (N.shiftr (cr3 s) mm_PageShift =? pdts s slot)
          (add64 (frame_addr (N.shiftr (cr3 s) mm_PageShift)) last_entry_off)
          (ev_map page frame flags) (pdt_map slot page frame flags s).
Proof.
  intros Hw Hcr Hpf Hfl.
  assert (Haf : N.shiftr (cr3 s) mm_PageShift < two64) by (apply PtTrans.shiftr_lt; exact Hcr).
  unfold go_vmm_PageDirectoryTable_Map, pdt_map, with_pdt.
  unfold go_vmm_world_seam at 1. wsimp. cbn [o_active].
  rewrite (gw64_small _ Haf).
  set (af := N.shiftr (cr3 s) mm_PageShift) in *. set (pf := pdts s slot) in *.
  destruct (af =? pf) eqn:Eact; cbn [negb].
  - unfold go_vmm_world_seam. wsimp. cbn [o_map].
    unfold pdt_res. destruct (map_page page frame flags s) as [[s' e]|]; cbn [lift_op]; reflexivity.
  - change (gidx vmm_pageLevelBits 0) with (Some 9). cbv iota beta.
    rewrite (lea_trans af). set (lea := add64 (frame_addr af) last_entry_off).
    unfold set_f_world_mem, set_f_world_trace. wsimp.
    rewrite (with_pdt_swings (fun w e => GOk (w, e)) _ o_map (map_page page frame flags)) by
      (first [exact Hw | reflexivity | intros a b e; apply map_page_evolves; exact Hfl]).
    destruct (phys s lea) as [[f i]|]; [|reflexivity].
    destruct (map_page page frame flags _) as [[s2 e]|]; reflexivity.
Qed.

Theorem pdt_unmap_is_translation slot page s tr0 :
  mem_w64 s -> cr3 s < two64 -> pdts s slot < two64 ->
  go_vmm_PageDirectoryTable_Unmap (W tr0 s) (pdts s slot) page o_active o_flush o_unmap =
  pdt_res tr0 (N.shiftr (cr3 s) mm_PageShift =? pdts s slot)
          (add64 (frame_addr (N.shiftr (cr3 s) mm_PageShift)) last_entry_off)
          (ev_unmap page) (pdt_unmap slot page s).
Proof.
  intros Hw Hcr Hpf.
  assert (Haf : N.shiftr (cr3 s) mm_PageShift < two64) by (apply PtTrans.shiftr_lt; exact Hcr).
  unfold go_vmm_PageDirectoryTable_Unmap, pdt_unmap, with_pdt.
  unfold go_vmm_world_seam at 1. wsimp. cbn [o_active].
  rewrite (gw64_small _ Haf).
  set (af := N.shiftr (cr3 s) mm_PageShift) in *. set (pf := pdts s slot) in *.
  destruct (af =? pf) eqn:Eact; cbn [negb].
  - unfold go_vmm_world_seam. wsimp. cbn [o_unmap].
    unfold pdt_res. destruct (unmap_page page s) as [[s' e]|]; cbn [lift_op]; reflexivity.
  - change (gidx vmm_pageLevelBits 0) with (Some 9). cbv iota beta.
    rewrite (lea_trans af). set (lea := add64 (frame_addr af) last_entry_off).
    unfold set_f_world_mem, set_f_world_trace. wsimp.
    rewrite (with_pdt_swings (fun w e => GOk (w, e)) _ o_unmap (unmap_page page)) by
      (first [exact Hw | reflexivity | intros a b e; apply unmap_page_evolves]).
    destruct (phys s lea) as [[f i]|]; [|reflexivity].
    destruct (unmap_page page _) as [[s2 e]|]; reflexivity.
Qed.


(** ---- PageDirectoryTable.Activate ---- *)
Theorem pdt_activate_is_translation slot s tr0 :
  pdts s slot < two64 ->
  go_vmm_PageDirectoryTable_Activate (W tr0 s) (pdts s slot) o_switch =
  GOk (W (ev_switch (frame_addr (pdts s slot)) :: tr0) (pdt_activate slot s), tt).
Proof.
  intros Hpf. unfold go_vmm_PageDirectoryTable_Activate, go_vmm_world_seam, pdt_activate.
  wsimp. cbn [o_switch].
  rewrite frame_addr_any. reflexivity.
Qed.

(** ---- PageDirectoryTable.Init ---- *)

(** overwriting a word *)
Lemma padd_add {A} i (x y : A) m : PositiveMap.add i x (PositiveMap.add i y m) = PositiveMap.add i x m.
Proof. revert m. induction i; intros [|l o r]; cbn; f_equal; auto. Qed.

(* [wr] and [rd] are opaque outside Vmm/PtMem.v; the two facts below (a word written twice, a read of the empty memory)
   are about their representation and are not among PtMem's read-after-write lemmas *)
Local Transparent wr.
Lemma wr_wr m f i x y : wr (wr m f i x) f i y = wr m f i y.
Proof.
  unfold wr. rewrite get_tbl_add_same. cbn [fst snd]. rewrite !padd_add. reflexivity.
Qed.
Local Opaque wr.

Lemma wr_st_wr_st s f i x y : wr_st (wr_st s f i x) f i y = wr_st s f i y.
Proof. unfold wr_st, set_mem. cbn [mem lo cnt cr3 orc flog slog last zf prot pdts inited]. rewrite wr_wr. reflexivity. Qed.

Lemma rd_wr_st_gen s f i x t j : rd (mem (wr_st s f i x)) t j = if (t =? f) && (j =? i) then x else rd (mem s) t j.
Proof. unfold wr_st, set_mem. cbn [mem]. apply rd_wr. Qed.

Lemma rd_wr_st s f i x : rd (mem (wr_st s f i x)) f i = x.
Proof. rewrite rd_wr_st_gen, !N.eqb_refl. reflexivity. Qed.

(** the walk that translates [page] from table [t] does not go through frame [x] *)
Fixpoint walk_avoids (s : st) (levels : list N) (t page x : N) : bool :=
  match levels with
  | [] => true
  | k :: rest =>
      negb (t =? x) &&
      (if backed s t then
         let e := rd (mem s) t (hw_idx page k) in
         if hw_P e && negb (hw_PS e && (k <? 3)) then walk_avoids s rest (hw_frame e) page x else true
       else true)
  end.
Definition path_avoids (s : st) (va x : N) : bool :=
  walk_avoids s hw_levels (N.shiftr (cr3 s) 12) (N.shiftr va 12) x.

(** [s'] differs from [s] at most in the contents of frame [x] *)
Definition only_at (x : N) (s s' : st) : Prop :=
  lo s' = lo s /\ cnt s' = cnt s /\ cr3 s' = cr3 s /\ forall t i, t <> x -> rd (mem s') t i = rd (mem s) t i.

Lemma only_at_trans x s1 s2 s3 : only_at x s1 s2 -> only_at x s2 s3 -> only_at x s1 s3.
Proof.
  intros (A1 & A2 & A3 & A4) (B1 & B2 & B3 & B4). repeat split; try congruence.
  intros t i Ht. rewrite B4, A4 by exact Ht. reflexivity.
Qed.

Lemma only_at_zero x s : only_at x s (set_mem s (zero (mem s) x)).
Proof.
  repeat split. intros t i Ht. unfold set_mem. cbn [mem]. rewrite rd_zero.
  destruct (N.eqb_spec t x); [contradiction | reflexivity].
Qed.

Lemma only_at_wr x s i v : only_at x s (wr_st s x i v).
Proof.
  repeat split. intros t j Ht. unfold wr_st, set_mem. cbn [mem]. rewrite rd_wr.
  destruct (N.eqb_spec t x); [contradiction | reflexivity].
Qed.

Lemma hw_walk_stable x s s' page : only_at x s s' ->
  forall levels t, walk_avoids s levels t page x = true ->
    hw_walk s' levels t page = hw_walk s levels t page /\ walk_avoids s' levels t page x = true.
Proof.
  intros (H1 & H2 & H3 & H4).
  assert (Hbk : forall f, backed s' f = backed s f) by (intros; unfold backed; rewrite H1, H2; reflexivity).
  induction levels as [|k rest IH]; intros t; cbn [hw_walk walk_avoids].
  - intros _. rewrite Hbk. split; reflexivity.
  - rewrite Hbk. destruct (N.eqb_spec t x) as [->|Ht]; cbn [negb andb]; [discriminate|].
    rewrite (H4 t _ Ht).
    destruct (backed s t); [|split; reflexivity].
    destruct (hw_P _ && negb _); [|split; reflexivity].
    apply IH.
Qed.

Lemma resolve_stable x s s' va : only_at x s s' -> path_avoids s va x = true ->
  resolve s' va = resolve s va /\ resolve_page s' va = resolve_page s va /\ path_avoids s' va x = true.
Proof.
  intros Ho Hp. pose proof Ho as (H1 & H2 & H3 & H4).
  unfold path_avoids in *.
  destruct (hw_walk_stable x s s' (N.shiftr va 12) Ho hw_levels _ Hp) as [E1 E2].
  unfold resolve, resolve_page, mmu. rewrite H3, E1. repeat split. exact E2.
Qed.

Lemma path_avoids_page s va va' x : N.shiftr va 12 = N.shiftr va' 12 -> path_avoids s va x = path_avoids s va' x.
Proof. unfold path_avoids. intros ->. reflexivity. Qed.

Definition init_events (active : bool) (frame e : N) : list gcall :=
  if active then [ev_active]
  else if e =? 0 then [ev_unmap temp_page; ev_memset (frame_addr temp_page); ev_maptemp frame; ev_active]
  else [ev_maptemp frame; ev_active].

Definition pdt_init_res (tr0 : list gcall) (frame : N) (active : bool) (r : R (st * N))
  : gres (go_vmm_world * (option string * N)) :=
  match r with
  | Stray => GPanic
  | Ok (s', e) => GOk (W (init_events active frame e ++ tr0) s', (err_of e, frame))
  end.

(** the frame the temporary page is mapped to is not one of the tables that translate the temporary page *)
Definition init_stable (frame : N) (s0 : st) : Prop :=
  forall s1 pf, map_temporary frame s0 = Ok (s1, 0, temp_page) ->
    resolve_page s1 (frame_addr temp_page) = Some pf ->
    path_avoids s1 (frame_addr temp_page) pf = true.

Lemma err_of_nil e : negb (gerr_eqb (err_of e) None) = negb (e =? 0).
Proof. unfold err_of. destruct (e =? 0); reflexivity. Qed.

Lemma map_temporary_page f s s1 e p : map_temporary f s = Ok (s1, e, p) -> p = if e =? 0 then temp_page else 0.
Proof.
  unfold map_temporary. destruct (_ && _). { intros E; injection E as _ <- <-. reflexivity. }
  destruct (map_page _ _ _ _) as [[s2 err]|]; [|discriminate].
  destruct (err =? 0) eqn:Ee; intros E; injection E as _ <- <-; [reflexivity | rewrite Ee; reflexivity].
Qed.

Definition last_entry_va : N := add64 (frame_addr temp_page) last_entry_off.

Lemma resolve_last s pf : resolve_page s (frame_addr temp_page) = Some pf -> resolve s last_entry_va = Some (pf, 511).
Proof.
  unfold resolve_page, resolve, mmu.
  change (N.land (frame_addr temp_page) 4095 =? 0) with true.
  change (N.land last_entry_va 7 =? 0) with true.
  change (N.shiftr last_entry_va 12) with (N.shiftr (frame_addr temp_page) 12).
  cbv iota. intros ->. reflexivity.
Qed.

Theorem pdt_init_is_translation slot frame s tr0 pdt0 :
  frame < two64 ->
  init_stable frame (set_pdt s slot frame) ->
  go_vmm_PageDirectoryTable_Init (W tr0 (set_pdt s slot frame)) pdt0 frame o_active o_memset o_maptemp o_unmap =
  pdt_init_res tr0 frame (frame_addr frame =? cr3 s) (pdt_init slot frame s).
Proof.
  intros Hfr Hst. unfold pdt_init. set (s0 := set_pdt s slot frame) in *.
  unfold go_vmm_PageDirectoryTable_Init.
  unfold go_vmm_world_seam at 1. wsimp. cbn [o_active].
  rewrite frame_addr_any.
  change (cr3 s0) with (cr3 s).
  destruct (frame_addr frame =? cr3 s) eqn:Eact.
  { reflexivity. }
  unfold go_vmm_world_seam at 1. wsimp. cbn [o_maptemp].
  destruct (map_temporary frame s0) as [[[s1 err] page]|] eqn:Emt; [|reflexivity].
  rewrite err_of_nil.
  destruct (err =? 0) eqn:Eerr; cbn [negb].
  2:{ unfold pdt_init_res, init_events. rewrite Eerr. reflexivity. }
  apply N.eqb_eq in Eerr. subst err.
  pose proof (map_temporary_page _ _ _ _ _ Emt) as Ep. change (page = temp_page) in Ep. subst page.
  rewrite page_addr_any.
  unfold go_vmm_world_seam at 1. wsimp. cbn [o_memset].
  change ((0 =? 0) && (mm_PageSize =? mm_PageSize)) with true. cbv iota.
  destruct (resolve_page s1 (frame_addr temp_page)) as [pf|] eqn:Erp; [|reflexivity].
  wsimp.
  change (gidx vmm_pageLevelBits 0) with (Some 9). cbv iota beta.
  replace (gw 64 (frame_addr temp_page + N.shiftl (N.shiftl 1 9 - 1) mm_PointerShift)) with last_entry_va by reflexivity.
  fold last_entry_va.
  pose proof (resolve_last s1 pf Erp) as Erl. rewrite Erl.
  pose proof (Hst s1 pf Emt Erp) as Hav.
  rewrite (path_avoids_page s1 _ last_entry_va pf) in Hav by reflexivity.
  set (s2 := set_mem s1 (zero (mem s1) pf)).
  destruct (resolve_stable pf s1 s2 last_entry_va (only_at_zero pf s1) Hav) as (R2 & _ & A2).
  rewrite Erl in R2.
  unfold go_vmm_world_store_virt at 1, vstore. wsimp.
  rewrite R2. wsimp.
  set (s2a := wr_st s2 pf 511 (gw 64 0)).
  destruct (resolve_stable pf s2 s2a last_entry_va (only_at_wr pf s2 511 _) A2) as (R3 & _ & A3).
  rewrite R2 in R3.
  unfold go_vmm_world_load_virt at 1, vload. wsimp.
  rewrite R3.
  rewrite (rd_wr_st s2 pf 511 0 : rd (mem s2a) pf 511 = 0).
  change (N.lor vmm_FlagPresent vmm_FlagRW) with P_RW.
  rewrite (set_flags_any 0 P_RW zero_lt P_RW_lt).
  unfold go_vmm_world_store_virt at 1, vstore. wsimp.
  rewrite R3. wsimp.
  unfold s2a. rewrite wr_st_wr_st.
  set (s2b := wr_st s2 pf 511 (set_flags 0 P_RW)).
  destruct (resolve_stable pf s2 s2b last_entry_va (only_at_wr pf s2 511 _) A2) as (R4 & _ & A4).
  rewrite R2 in R4.
  unfold go_vmm_world_load_virt at 1, vload. wsimp.
  rewrite R4.
  rewrite (rd_wr_st s2 pf 511 _ : rd (mem s2b) pf 511 = _).
  rewrite (set_frame_any _ frame (set_flags_lt 0 P_RW zero_lt P_RW_lt)).
  unfold go_vmm_world_store_virt at 1, vstore. wsimp.
  rewrite R4. wsimp.
  unfold s2b. rewrite wr_st_wr_st.
  unfold go_vmm_world_seam. wsimp. cbn [o_unmap].
  fold s2.
  destruct (unmap_page temp_page _) as [[s4 e4]|]; cbn [lift_op]; reflexivity.
Qed.

Theorem trans_keeps_w64 (s s' : st) (e : N) :
  mem_w64 s ->
  (forall p f fl, fl < two64 -> map_page p f fl s = Ok (s', e) -> mem_w64 s') /\
  (forall p, unmap_page p s = Ok (s', e) -> mem_w64 s').
Proof.
  intros Hw. split.
  - intros p f fl Hfl E. apply (map_page_keeps _ _ _ _ _ _ Hfl E). exact Hw.
  - intros p E. apply (unmap_page_keeps _ _ _ _ E). exact Hw.
Qed.

(** Init keeps the arena and the width of the memory words *)
Lemma pdt_init_keeps slot frame s s' e : pdt_init slot frame s = Ok (s', e) -> keeps s s'.
Proof. intros E. exact (evolves_keeps _ _ (pdt_init_evolves _ _ _ _ _ E)). Qed.

(** the boot state of a case has 64-bit words *)
Local Transparent rd.
Lemma rd_empty f i : rd (PositiveMap.empty table) f i = POISON.
Proof. unfold rd, get_tbl. rewrite PositiveMap.gempty. unfold tbl_get. cbn [fst snd base_get]. rewrite PositiveMap.gempty. reflexivity. Qed.
Local Opaque rd.

Lemma init_state_w64 lo0 cnt0 last0 oracle : lo0 < 2 ^ 50 -> mem_w64 (init_state lo0 cnt0 last0 oracle).
Proof.
  intros Hlo f i. unfold init_state. cbn [mem]. rewrite rd_wr.
  destruct ((f =? lo0) && (i =? 511)).
  - apply PtTrans.lor_lt; [|reflexivity].
    rewrite N.shiftl_mul_pow2. change (2 ^ 12) with 4096. change (2 ^ 50) with 1125899906842624 in Hlo. unfold two64. lia.
  - rewrite rd_zero. destruct (f =? lo0); [reflexivity|]. rewrite rd_empty. reflexivity.
Qed.

Lemma pdt_map_keeps slot p f fl s s' e : fl < two64 -> pdt_map slot p f fl s = Ok (s', e) -> keeps s s'.
Proof. intros Hfl E. exact (evolves_keeps _ _ (pdt_map_evolves _ _ _ _ _ _ _ Hfl E)). Qed.

Lemma pdt_unmap_keeps slot p s s' e : pdt_unmap slot p s = Ok (s', e) -> keeps s s'.
Proof. intros E. exact (evolves_keeps _ _ (pdt_unmap_evolves _ _ _ _ _ E)). Qed.
