(** Pure 64-bit arithmetic of the recursive page-table window (C04 [recursive_entry]). *)
From Coq Require Import NArith ZArith Lia List Bool.
From Coq Require Import ZifyBool ZifyN ZifyNat.
From FF Require Import Lib.Word Gen.Consts_mm_vmm Vmm.Region Vmm.Pt.
Import ListNotations.
Local Open Scope N_scope.

(** Obligations on the regenerated constants: the Go constants describe the hardware [mmu] models. *)
Lemma go_levels_val : go_levels = [(39, 9); (30, 9); (21, 9); (12, 9)].
Proof. reflexivity. Qed.
Lemma last_level_val : last_level = 3.
Proof. reflexivity. Qed.
Lemma pointer_shift_val : mm_PointerShift = 3.
Proof. reflexivity. Qed.
Lemma page_shift_val : mm_PageShift = 12.
Proof. reflexivity. Qed.
Lemma phys_mask_val : vmm_ptePhysPageMask = N.shiftl (N.ones 40) 12.
Proof. reflexivity. Qed.
Lemma flag_present_val : vmm_FlagPresent = 1.
Proof. reflexivity. Qed.
Lemma flag_rw_val : vmm_FlagRW = 2.
Proof. reflexivity. Qed.
Lemma flag_huge_val : vmm_FlagHugePage = 128.
Proof. reflexivity. Qed.
Lemma temp_page_val : temp_page = 0xffffff7ffffff.
Proof. reflexivity. Qed.
Lemma level_bits_val : level_bits 0 = 9 /\ level_bits 1 = 9 /\ level_bits 2 = 9 /\ level_bits 3 = 9.
Proof. repeat split; reflexivity. Qed.
Lemma last_entry_off_val : last_entry_off = 4088.
Proof. reflexivity. Qed.

(** A virtual address of the canonical upper half by its four table indices. *)
Definition win (a b c d : N) : N :=
  0xFFFF000000000000 + a * 0x8000000000 + b * 0x40000000 + c * 0x200000 + d * 0x1000.

Lemma pdt_virtual_addr_win : vmm_pdtVirtualAddr = win 511 511 511 511.
Proof. reflexivity. Qed.

Lemma hw_idx_spec page k : k <= 3 -> hw_idx page k = (page / 2 ^ (9 * (3 - k))) mod 512.
Proof.
  intros _. unfold hw_idx. rewrite N.shiftr_div_pow2.
  change 511 with (N.ones 9). rewrite N.land_ones. reflexivity.
Qed.

Lemma hw_idx_lt page k : hw_idx page k < 512.
Proof.
  unfold hw_idx. change 511 with (N.ones 9). rewrite N.land_ones.
  apply N.mod_lt. discriminate.
Qed.

Lemma mod_split_top p b : b <> 0 -> p mod (b * 512) = (p / b) mod 512 * b + p mod b.
Proof. intros Hb. rewrite N.mod_mul_r by (exact Hb || discriminate). ring. Qed.

(** the index the Go code extracts at level k is the hardware's index *)
Lemma entry_index_hw va :
  entry_index va 39 9 = hw_idx (N.shiftr va 12) 0 /\
  entry_index va 30 9 = hw_idx (N.shiftr va 12) 1 /\
  entry_index va 21 9 = hw_idx (N.shiftr va 12) 2 /\
  entry_index va 12 9 = hw_idx (N.shiftr va 12) 3.
Proof.
  unfold entry_index, hw_idx. rewrite !N.shiftr_shiftr.
  repeat split; reflexivity.
Qed.

(** indices of a page depend on its low 36 bits only (4503599627370496 = 2^52, the width of a page number) *)
Lemma shl_page_shr page : N.shiftr (shl64 page 12) 12 = page mod 4503599627370496.
Proof.
  unfold shl64, w64, two64. rewrite N.shiftl_mul_pow2, N.shiftr_div_pow2. change (2 ^ 12) with 4096. lia.
Qed.

Lemma hw_idx_mod52 page k : k <= 3 -> hw_idx (page mod 4503599627370496) k = hw_idx page k.
Proof.
  intros _. unfold hw_idx. apply N.bits_inj. intros n. rewrite !N.land_spec, !N.shiftr_spec'.
  destruct (N.ltb_spec n 9) as [Hn|Hn].
  - change 4503599627370496 with (2 ^ 52). rewrite N.mod_pow2_bits_low by lia. reflexivity.
  - change 511 with (N.ones 9). rewrite N.ones_spec_high by exact Hn. rewrite !andb_false_r. reflexivity.
Qed.

Lemma hw_idx_shl_page page k : k <= 3 -> hw_idx (N.shiftr (shl64 page 12) 12) k = hw_idx page k.
Proof. intros Hk. rewrite shl_page_shr. apply hw_idx_mod52; exact Hk. Qed.

(** one step of the Go walk inside the window: [entryAddr <<= 9] drops the top index *)
Lemma win_next b c d i :
  b < 512 -> c < 512 -> d < 512 -> i < 512 ->
  shl64 (add64 (win 511 b c d) (shl64 i 3)) 9 = win b c d i.
Proof.
  (* the sum does not wrap; shifted, its sign extension and top index make up 511 * 2^64 + 0xFFFF000000000000 *)
  intros Hb Hc Hd Hi. unfold shl64, add64, w64. rewrite !N.shiftl_mul_pow2.
  change (2 ^ 3) with 8. change (2 ^ 9) with 512.
  rewrite (N.mod_small (i * 8)), (N.mod_small (win 511 b c d + i * 8)) by (unfold win, two64; lia).
  replace ((win 511 b c d + i * 8) * 512) with (win b c d i + 511 * two64) by (unfold win, two64; lia).
  rewrite N.mod_add by discriminate. apply N.mod_small. unfold win, two64. lia.
Qed.

(** the address of entry [i] of the table addressed by [win a b c d] *)
Lemma win_entry a b c d i :
  a < 512 -> b < 512 -> c < 512 -> d < 512 -> i < 512 ->
  add64 (win a b c d) (shl64 i 3) = win a b c d + i * 8.
Proof.
  intros. unfold shl64, add64, w64. rewrite !N.shiftl_mul_pow2. change (2 ^ 3) with 8.
  rewrite (N.mod_small (i * 8)) by (unfold two64; lia). apply N.mod_small. unfold win, two64. lia.
Qed.

Lemma win_idx a b c d o :
  a < 512 -> b < 512 -> c < 512 -> d < 512 -> o < 4096 ->
  hw_idx (N.shiftr (win a b c d + o) 12) 0 = a /\
  hw_idx (N.shiftr (win a b c d + o) 12) 1 = b /\
  hw_idx (N.shiftr (win a b c d + o) 12) 2 = c /\
  hw_idx (N.shiftr (win a b c d + o) 12) 3 = d.
Proof.
  intros Ha Hb Hc Hd Ho.
  assert (Ep: N.shiftr (win a b c d + o) 12 = ((0xFFFF * 512 + a) * 512 + b) * 262144 + c * 512 + d).
  { rewrite N.shiftr_div_pow2. symmetry. apply (N.div_unique _ (2 ^ 12) _ o); [exact Ho | unfold win; lia]. }
  rewrite Ep, !hw_idx_spec by lia.
  change (2 ^ (9 * (3 - 0))) with 134217728. change (2 ^ (9 * (3 - 1))) with 262144.
  change (2 ^ (9 * (3 - 2))) with 512. change (2 ^ (9 * (3 - 3))) with 1.
  assert (D: forall q r m x, r < m -> x = m * q + r -> x / m = q) by (intros q r m x Hr ->; symmetry; apply (N.div_unique _ m q r Hr); reflexivity).
  assert (M: forall q r x, r < 512 -> x = 512 * q + r -> x mod 512 = r) by (intros q r x Hr ->; symmetry; apply (N.mod_unique _ 512 q r Hr); reflexivity).
  repeat split.
  - rewrite (D (0xFFFF * 512 + a) (b * 262144 + c * 512 + d)) by lia. apply (M 0xFFFF); [exact Ha | lia].
  - rewrite (D ((0xFFFF * 512 + a) * 512 + b) (c * 512 + d)) by lia. apply (M (0xFFFF * 512 + a)); [exact Hb | lia].
  - rewrite (D (((0xFFFF * 512 + a) * 512 + b) * 512 + c) d) by lia. apply (M ((0xFFFF * 512 + a) * 512 + b)); [exact Hc | lia].
  - rewrite N.div_1_r. apply (M ((((0xFFFF * 512 + a) * 512 + b) * 512 + c))); [exact Hd | lia].
Qed.

Lemma win_off a b c d i :
  a < 512 -> b < 512 -> c < 512 -> d < 512 -> i < 512 ->
  N.land (win a b c d + i * 8) 7 = 0 /\ N.shiftr (N.land (win a b c d + i * 8) 4095) 3 = i.
Proof.
  intros. change 7 with (N.ones 3). change 4095 with (N.ones 12).
  rewrite !N.land_ones, N.shiftr_div_pow2. change (2 ^ 3) with 8. change (2 ^ 12) with 4096.
  unfold win. split; lia.
Qed.

Lemma win_page_aligned a b c d :
  a < 512 -> b < 512 -> c < 512 -> d < 512 -> N.land (win a b c d) 4095 = 0.
Proof.
  intros. change 4095 with (N.ones 12). rewrite N.land_ones. change (2 ^ 12) with 4096. unfold win. lia.
Qed.

(** the temp-mapping address by its indices *)
Lemma temp_addr_win : vmm_tempMappingAddr = win 510 511 511 511.
Proof. reflexivity. Qed.

(** entry bit fields: what the Go accessors compute is what the hardware reads *)
Lemma has_present_hw e : has_flags e vmm_FlagPresent = hw_P e.
Proof.
  unfold has_flags, hw_P. rewrite flag_present_val.
  change 1 with (N.ones 1) at 1. rewrite N.land_ones. change (2 ^ 1) with 2.
  rewrite N.bit0_eqb. reflexivity.
Qed.

Lemma has_huge_hw e : has_flags e vmm_FlagHugePage = hw_PS e.
Proof.
  unfold has_flags, hw_PS. rewrite flag_huge_val.
  change 128 with (N.shiftl 1 7).
  destruct (N.testbit e 7) eqn:E.
  - apply N.eqb_eq. apply N.bits_inj. intros n. rewrite N.land_spec.
    destruct (N.eq_dec n 7) as [->|Hn].
    + rewrite E. reflexivity.
    + rewrite N.shiftl_1_l, N.pow2_bits_false by congruence. apply andb_false_r.
  - apply N.eqb_neq. intros H. apply (f_equal (fun x => N.testbit x 7)) in H.
    rewrite N.land_spec, E in H. rewrite N.shiftl_1_l, N.pow2_bits_true in H. discriminate.
Qed.

(** Frame(): (e & mask) >> 12 is the hardware's frame field *)
Lemma pte_frame_hw e : pte_frame e = hw_frame e.
Proof.
  unfold pte_frame, hw_frame. rewrite phys_mask_val, page_shift_val.
  change 0xFFFFFFFFFF with (N.ones 40).
  apply N.bits_inj. intros n.
  rewrite N.shiftr_spec', N.land_spec, N.land_spec, N.shiftr_spec'.
  f_equal.
  rewrite N.shiftl_spec_high' by lia. replace (n + 12 - 12) with n by lia. reflexivity.
Qed.

Lemma testbit_above f k n : f < 2 ^ k -> k <= n -> N.testbit f n = false.
Proof.
  intros H Hn. destruct (N.eq_dec f 0) as [->|Hz]; [apply N.bits_0|]. apply N.bits_above_log2.
  apply N.log2_lt_pow2; [lia|]. eapply N.lt_le_trans; [exact H|]. apply N.pow_le_mono_r; lia.
Qed.

Lemma hw_frame_lt e : hw_frame e < 2 ^ 40.
Proof.
  unfold hw_frame. change 0xFFFFFFFFFF with (N.ones 40). rewrite N.land_ones. apply N.mod_lt. discriminate.
Qed.

(** entries as the Go code builds them: [*pte = 0; SetFrame(f); SetFlags(fl)] *)
Lemma shl64_small f k : N.shiftl f k < two64 -> shl64 f k = N.shiftl f k.
Proof. intros H. unfold shl64. apply w64_small. exact H. Qed.

Lemma frame_addr_small f : f < 2 ^ 52 -> frame_addr f = N.shiftl f 12.
Proof.
  intros H. unfold frame_addr. rewrite page_shift_val. apply shl64_small.
  rewrite N.shiftl_mul_pow2. unfold two64. change (2 ^ 12) with 4096. change (2 ^ 52) with 4503599627370496 in H. lia.
Qed.

Lemma w64_incr x : x + 1 <= 2 ^ 52 -> w64 (x + 1) = x + 1.
Proof. intros H. apply w64_small. unfold two64. change (2 ^ 52) with 4503599627370496 in H. lia. Qed.

Lemma frame_addr_shr f : f < 2 ^ 40 -> N.shiftr (frame_addr f) 12 = f.
Proof.
  intros H. rewrite frame_addr_small by (change (2 ^ 40) with 1099511627776 in H; change (2 ^ 52) with 4503599627370496; lia).
  rewrite N.shiftr_shiftl_l by lia. apply N.shiftl_0_r.
Qed.

Lemma mk_entry_val f fl : f < 2 ^ 52 -> set_flags (set_frame 0 f) fl = N.lor (N.shiftl f 12) fl.
Proof.
  intros H. unfold set_flags, set_frame, andnot. rewrite frame_addr_small by exact H.
  rewrite N.ldiff_0_l, N.lor_0_l. reflexivity.
Qed.

Lemma mk_entry_bit_low f fl n : f < 2 ^ 52 -> n < 12 -> N.testbit (set_flags (set_frame 0 f) fl) n = N.testbit fl n.
Proof.
  intros H Hn. rewrite mk_entry_val by exact H. rewrite N.lor_spec, N.shiftl_spec_low by exact Hn. reflexivity.
Qed.

Lemma mk_entry_P f fl : f < 2 ^ 52 -> hw_P (set_flags (set_frame 0 f) fl) = N.testbit fl 0.
Proof. intros H. apply mk_entry_bit_low; [exact H | lia]. Qed.

Lemma mk_entry_PS f fl : f < 2 ^ 52 -> hw_PS (set_flags (set_frame 0 f) fl) = N.testbit fl 7.
Proof. intros H. apply mk_entry_bit_low; [exact H | lia]. Qed.

Lemma mk_entry_frame f fl :
  f < 2 ^ 40 -> N.land fl vmm_ptePhysPageMask = 0 -> hw_frame (set_flags (set_frame 0 f) fl) = f.
Proof.
  intros H Hfl.
  assert (H52: f < 2 ^ 52) by (change (2 ^ 40) with 1099511627776 in H; change (2 ^ 52) with 4503599627370496; lia).
  rewrite mk_entry_val by exact H52. unfold hw_frame. change 0xFFFFFFFFFF with (N.ones 40).
  apply N.bits_inj. intros n. rewrite N.land_spec, N.shiftr_spec', N.lor_spec.
  rewrite N.shiftl_spec_high' by lia. replace (n + 12 - 12) with n by lia.
  destruct (N.ltb_spec n 40) as [Hn|Hn].
  - rewrite N.ones_spec_low by exact Hn. rewrite andb_true_r.
    assert (Hb: N.testbit fl (n + 12) = false).
    { apply (f_equal (fun x => N.testbit x (n + 12))) in Hfl.
      rewrite N.land_spec, phys_mask_val, N.shiftl_spec_high', N.bits_0 in Hfl by lia.
      replace (n + 12 - 12) with n in Hfl by lia. rewrite N.ones_spec_low in Hfl by exact Hn.
      rewrite andb_true_r in Hfl. exact Hfl. }
    rewrite Hb. apply orb_false_r.
  - rewrite N.ones_spec_high by exact Hn. rewrite andb_false_r.
    symmetry. apply (testbit_above f 40 _ H). lia.
Qed.

Lemma P_RW_val : P_RW = 3.
Proof. reflexivity. Qed.

(** the entry Map writes for a new intermediate table *)
Lemma link_entry nf :
  nf < 2 ^ 40 ->
  hw_P (set_flags (set_frame 0 nf) P_RW) = true /\ hw_PS (set_flags (set_frame 0 nf) P_RW) = false /\
  hw_frame (set_flags (set_frame 0 nf) P_RW) = nf.
Proof.
  intros H.
  assert (H52: nf < 2 ^ 52) by (change (2 ^ 40) with 1099511627776 in H; change (2 ^ 52) with 4503599627370496; lia).
  rewrite mk_entry_P, mk_entry_PS, mk_entry_frame by (assumption || reflexivity).
  repeat split; reflexivity.
Qed.

(** SetFrame on an existing entry touches bits 12-51 only *)
Lemma mask_bit n : N.testbit vmm_ptePhysPageMask n = (12 <=? n) && (n <? 52).
Proof.
  rewrite phys_mask_val. destruct (N.leb_spec 12 n) as [H|H].
  - rewrite N.shiftl_spec_high' by exact H. cbn [andb].
    destruct (N.ltb_spec n 52) as [H2|H2]; [rewrite N.ones_spec_low by lia | rewrite N.ones_spec_high by lia]; reflexivity.
  - rewrite N.shiftl_spec_low by exact H. reflexivity.
Qed.

Lemma set_frame_bit_low e f n : n < 12 -> N.testbit (set_frame e f) n = N.testbit e n.
Proof.
  intros Hn. unfold set_frame, andnot, frame_addr, shl64, w64. rewrite page_shift_val.
  rewrite N.lor_spec, N.ldiff_spec, mask_bit.
  replace (12 <=? n) with false by (symmetry; apply N.leb_gt; exact Hn). cbn [andb negb]. rewrite andb_true_r.
  replace (N.testbit (N.shiftl f 12 mod two64) n) with false; [apply orb_false_r|].
  symmetry. unfold two64. change 0x10000000000000000 with (2 ^ 64). rewrite N.mod_pow2_bits_low by lia.
  apply N.shiftl_spec_low. exact Hn.
Qed.

Lemma set_frame_P e f : hw_P (set_frame e f) = hw_P e.
Proof. apply set_frame_bit_low. lia. Qed.
Lemma set_frame_PS e f : hw_PS (set_frame e f) = hw_PS e.
Proof. apply set_frame_bit_low. lia. Qed.

Lemma set_frame_frame e f : f < 2 ^ 40 -> hw_frame (set_frame e f) = f.
Proof.
  intros H.
  assert (H52: f < 2 ^ 52) by (change (2 ^ 40) with 1099511627776 in H; change (2 ^ 52) with 4503599627370496; lia).
  unfold set_frame, andnot. rewrite frame_addr_small by exact H52.
  unfold hw_frame. change 0xFFFFFFFFFF with (N.ones 40).
  apply N.bits_inj. intros n. rewrite N.land_spec, N.shiftr_spec', N.lor_spec, N.ldiff_spec, mask_bit.
  rewrite N.shiftl_spec_high' by lia. replace (n + 12 - 12) with n by lia.
  replace (12 <=? n + 12) with true by (symmetry; apply N.leb_le; lia). cbn [andb].
  destruct (N.ltb_spec n 40) as [Hn|Hn].
  - rewrite N.ones_spec_low by exact Hn. replace (n + 12 <? 52) with true by (symmetry; apply N.ltb_lt; lia).
    cbn [negb]. rewrite andb_false_r, andb_true_r. reflexivity.
  - rewrite N.ones_spec_high by exact Hn. rewrite andb_false_r.
    symmetry. apply (testbit_above f 40 _ H). lia.
Qed.

Lemma set_frame_twice e f g : f < 2 ^ 40 -> set_frame (set_frame e f) g = set_frame e g.
Proof.
  intros Hf.
  assert (H52: f < 2 ^ 52) by (change (2 ^ 40) with 1099511627776 in Hf; change (2 ^ 52) with 4503599627370496; lia).
  unfold set_frame, andnot. f_equal.
  apply N.bits_inj. intros n. rewrite !N.ldiff_spec, N.lor_spec, N.ldiff_spec.
  destruct (N.testbit vmm_ptePhysPageMask n) eqn:E; cbn [negb]; rewrite ?andb_false_r, ?andb_true_r; [reflexivity|].
  (* outside the mask the frame address has no bits *)
  replace (N.testbit (frame_addr f) n) with false; [apply orb_false_r|].
  symmetry. rewrite mask_bit in E. rewrite frame_addr_small by exact H52.
  destruct (N.leb_spec 12 n) as [H12|H12]; cbn [andb] in E.
  - apply N.ltb_ge in E. rewrite N.shiftl_spec_high' by exact H12.
    apply (testbit_above f 40 _ Hf). lia.
  - apply N.shiftl_spec_low. exact H12.
Qed.

Lemma set_frame_same e f : hw_frame e = f -> set_frame e f = e.
Proof.
  intros Hf. subst f. unfold set_frame, andnot.
  assert (E: frame_addr (hw_frame e) = N.land e vmm_ptePhysPageMask).
  { pose proof (hw_frame_lt e) as Hl.
    rewrite frame_addr_small by (change (2 ^ 40) with 1099511627776 in Hl; change (2 ^ 52) with 4503599627370496; lia).
    unfold hw_frame. change 0xFFFFFFFFFF with (N.ones 40).
    apply N.bits_inj. intros n. rewrite N.land_spec, mask_bit.
    destruct (N.leb_spec 12 n) as [H12|H12].
    - rewrite N.shiftl_spec_high' by exact H12. rewrite N.land_spec, N.shiftr_spec'. replace (n - 12 + 12) with n by lia.
      cbn [andb]. destruct (N.ltb_spec n 52) as [H2|H2].
      + rewrite N.ones_spec_low by lia. reflexivity.
      + rewrite N.ones_spec_high by lia. reflexivity.
    - rewrite N.shiftl_spec_low by exact H12. cbn [andb]. rewrite andb_false_r. reflexivity. }
  rewrite E. apply N.lor_ldiff_and.
Qed.
