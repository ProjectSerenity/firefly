(** Many address spaces at once: one ghost ownership map frame -> (root, path) for all page-table trees. *)
From Coq Require Import NArith ZArith Lia List Bool.
From Coq Require Import ZifyBool ZifyN ZifyNat.
From FF Require Import Lib.Word Gen.Consts_mm_vmm Vmm.Region Vmm.Pt Vmm.PtMem Vmm.PtArith Vmm.PtTree Vmm.PtMap Vmm.PtOps
     Vmm.PtTheorems Vmm.PtInit Vmm.PtPdt.
Import ListNotations.
Local Open Scope N_scope.

Definition gmap : Type := N -> option (N * list N).
Definition proj (g : gmap) (R : N) : ownmap :=
  fun f => match g f with Some (R', p) => if R' =? R then Some p else None | None => None end.

Record GInv (s : st) (roots : list N) (g : gmap) : Prop := {
  gi_wf : forall R, In R roots -> WF s R (proj g R);
  gi_in : forall f R p, g f = Some (R, p) -> In R roots;
  gi_nodup : NoDup (ofr (orc s));
  gi_fresh : forall f, In f (orc s) -> f <> 0 -> backed s f = true /\ g f = None;
  gi_act : In (N.shiftr (cr3 s) 12) roots
}.

Lemma WF_ext s R own1 own2 : (forall f, own1 f = own2 f) -> WF s R own1 -> WF s R own2.
Proof.
  intros E [W1 W2 W3 W4 W5]. split.
  - exact W1.
  - rewrite <- E. exact W2.
  - intros t p Ho. rewrite <- E in Ho. exact (W3 t p Ho).
  - exact W4.
  - intros t p i Ho Hl Hi Hne. rewrite <- E in Ho. destruct (W5 t p i Ho Hl Hi Hne) as [P1 P2]. split; [exact P1|].
    intros HP. rewrite <- E. exact (P2 HP).
Qed.

Lemma proj_some g R f p : proj g R f = Some p <-> g f = Some (R, p).
Proof.
  unfold proj. destruct (g f) as [[R' q]|].
  - destruct (N.eqb_spec R' R) as [->|Hne]; split; intros H; inversion H; subst; try reflexivity. congruence.
  - split; discriminate.
Qed.

Lemma proj_other g R T f p : g f = Some (T, p) -> R <> T -> proj g R f = None.
Proof. intros H Hne. unfold proj. rewrite H. destruct (N.eqb_spec T R); [congruence | reflexivity]. Qed.

Lemma proj_none g R f : g f = None -> proj g R f = None.
Proof. intros H. unfold proj. rewrite H. reflexivity. Qed.

Lemma root_owned s roots g R : GInv s roots g -> In R roots -> g R = Some (R, []).
Proof. intros G HR. apply proj_some. exact (wf_root _ _ _ (gi_wf _ _ _ G R HR)). Qed.

Lemma GInv_Inv s roots g : GInv s roots g -> Inv s (N.shiftr (cr3 s) 12) (N.shiftr (cr3 s) 12) (proj g (N.shiftr (cr3 s) 12)).
Proof.
  intros G. set (A := N.shiftr (cr3 s) 12).
  pose proof (gi_wf _ _ _ G A (gi_act _ _ _ G)) as W.
  destruct (wf_owned _ _ _ W A [] (wf_root _ _ _ W)) as (Hb & _). destruct (wf_rec _ _ _ W) as [U1 U2].
  split; [exact W | reflexivity | | left; reflexivity |].
  - unfold Rec. repeat split; assumption.
  - split; [exact (gi_nodup _ _ _ G)|]. intros f Hin Hz. destruct (gi_fresh _ _ _ G f Hin Hz) as [B1 B2].
    split; [exact B1|]. split; [apply proj_none; exact B2|].
    intros E. rewrite E, (root_owned s roots g A G (gi_act _ _ _ G)) in B2. discriminate.
Qed.

Lemma GInv_Inv2 s roots g T :
  GInv s roots g -> In T roots -> T <> N.shiftr (cr3 s) 12 ->
  Inv2 s (N.shiftr (cr3 s) 12) T (proj g (N.shiftr (cr3 s) 12)) (proj g T).
Proof.
  intros G HT Hne. set (A := N.shiftr (cr3 s) 12) in *.
  split.
  - exact (gi_wf _ _ _ G A (gi_act _ _ _ G)).
  - exact (gi_wf _ _ _ G T HT).
  - reflexivity.
  - intros f Hf. destruct (proj g A f) as [p|] eqn:E; [|congruence]. apply proj_some in E. eapply proj_other; [exact E | exact Hne].
  - split; [exact (gi_nodup _ _ _ G)|]. intros f Hin Hz. destruct (gi_fresh _ _ _ G f Hin Hz) as [B1 B2].
    split; [exact B1|]. split; [apply proj_none; exact B2|].
    intros E. rewrite E, (root_owned s roots g A G (gi_act _ _ _ G)) in B2. discriminate.
  - intros f Hin Hz. destruct (gi_fresh _ _ _ G f Hin Hz) as [_ B2]. apply proj_none. exact B2.
Qed.

(** [GInv] reads the state through the arena, the oracle, the active root and the entries of owned tables *)
Lemma ginv_ent_eq s s' roots g :
  GInv s roots g -> lo s' = lo s -> cnt s' = cnt s -> orc s' = orc s -> In (N.shiftr (cr3 s') 12) roots ->
  (forall R f p i, proj g R f = Some p -> ent s' f i = ent s f i) -> GInv s' roots g.
Proof.
  intros [G1 G2 G3 G4 G5] Hlo Hcnt Horc Hact He. split; try assumption.
  - intros R HR. apply (WF_ent_eq s s' R (proj g R) (G1 R HR) Hlo Hcnt). exact (He R).
  - rewrite Horc. exact G3.
  - intros f Hin Hz. rewrite Horc in Hin. unfold backed. rewrite Hlo, Hcnt. exact (G4 f Hin Hz).
Qed.

Lemma nodup_ofr_skipn n : forall l, NoDup (ofr l) -> NoDup (ofr (skipn n l)).
Proof.
  induction n as [|n IH]; intros l H; [exact H|]. destruct l as [|x l]; [exact H|]. cbn [skipn].
  apply IH. rewrite ofr_cons in H. destruct (x =? 0); [exact H | inversion H; assumption].
Qed.

Lemma nodup_ofr_split n : forall l f, NoDup (ofr l) -> f <> 0 -> In f (firstn n l) -> In f (skipn n l) -> False.
Proof.
  induction n as [|n IH]; intros l f H Hz H1 H2; [destruct H1|]. destruct l as [|x l]; [destruct H1|].
  cbn [firstn skipn] in *. rewrite ofr_cons in H.
  destruct H1 as [->|H1].
  - destruct (N.eqb_spec f 0); [congruence|]. inversion H as [|? ? Hnin _]; subst. apply Hnin. apply in_ofr. split; [|exact Hz].
    eapply in_skipn. exact H2.
  - apply (IH l f); try assumption. destruct (x =? 0); [exact H | inversion H; assumption].
Qed.

(** an operation on the tree of root [T] that takes its new tables from the head of the oracle and leaves
    every frame that is not a table of [T] alone (except the unowned frames in [exc]) *)
Lemma ginv_update s s' roots g T own' n exc :
  GInv s roots g -> In T roots -> WF s' T own' ->
  lo s' = lo s -> cnt s' = cnt s -> cr3 s' = cr3 s -> orc s' = skipn n (orc s) ->
  (forall f, own' f = proj g T f \/ (proj g T f = None /\ In f (firstn n (orc s)) /\ f <> 0)) ->
  (forall f i, own' f = None -> ~ In f exc -> ent s' f i = ent s f i) ->
  (forall f, In f exc -> g f = None) ->
  let g' : gmap := fun f => match own' f with Some p => Some (T, p) | None => g f end in
  GInv s' roots g' /\ (forall f, proj g' T f = own' f) /\ (forall R f, R <> T -> proj g' R f = proj g R f) /\
  (forall f, g f = None -> own' f = None -> g' f = None).
Proof.
  intros G HT W' Hlo Hcnt Hcr Horc Hown Hfr Hexc g'.
  pose proof (backed_eq s s' Hlo Hcnt) as Hbk.
  assert (Hnone: forall f R p, g f = Some (R, p) -> R <> T -> own' f = None).
  { intros f R p Hg Hne. destruct (Hown f) as [E | (_ & Hin & Hz)].
    - rewrite E. apply (proj_other g T R f p Hg). congruence.
    - destruct (gi_fresh _ _ _ G f (in_firstn f n _ Hin) Hz) as [_ B]. congruence. }
  assert (PT: forall f, proj g' T f = own' f).
  { intros f. unfold proj, g'. destruct (own' f) as [p|] eqn:E; [rewrite N.eqb_refl; reflexivity|].
    destruct (g f) as [[R q]|] eqn:Eg; [|reflexivity]. destruct (N.eqb_spec R T) as [->|]; [|reflexivity].
    assert (Hp: proj g T f = Some q) by (apply proj_some; exact Eg).
    destruct (Hown f) as [E2 | (E2 & _)]; congruence. }
  assert (PR: forall R f, R <> T -> proj g' R f = proj g R f).
  { intros R f Hne. unfold proj at 1. unfold g'. destruct (own' f) as [p|] eqn:E.
    - destruct (N.eqb_spec T R); [congruence|].
      destruct (proj g R f) as [q|] eqn:E2; [|reflexivity]. apply proj_some in E2.
      rewrite (Hnone f R q E2 Hne) in E. discriminate.
    - reflexivity. }
  split; [|split; [exact PT|]; split; [exact PR|]].
  - split.
    + intros R HR. destruct (N.eq_dec R T) as [->|Hne].
      * apply (WF_ext s' T own'); [intros f; symmetry; apply PT | exact W'].
      * apply (WF_ext s' R (proj g R)); [intros f; symmetry; apply PR; exact Hne|].
        apply (WF_ent_eq s s' R (proj g R) (gi_wf _ _ _ G R HR) Hlo Hcnt).
        intros f p i Hp. apply proj_some in Hp. apply Hfr; [eapply Hnone; eassumption|].
        intros Hin. rewrite (Hexc f Hin) in Hp. discriminate.
    + intros f R p. unfold g'. destruct (own' f) as [q|]; intros E; [inversion E; subst; exact HT | exact (gi_in _ _ _ G f R p E)].
    + rewrite Horc. apply nodup_ofr_skipn. exact (gi_nodup _ _ _ G).
    + intros f Hin Hz. rewrite Horc in Hin. rewrite Hbk.
      destruct (gi_fresh _ _ _ G f (in_skipn f n _ Hin) Hz) as [B1 B2]. split; [exact B1|].
      unfold g'. destruct (own' f) as [q|] eqn:E; [|exact B2]. exfalso.
      destruct (Hown f) as [E2 | (_ & Hin2 & _)].
      * rewrite E in E2. symmetry in E2. apply proj_some in E2. congruence.
      * exact (nodup_ofr_split n _ f (gi_nodup _ _ _ G) Hz Hin2 Hin).
    + rewrite Hcr. exact (gi_act _ _ _ G).
  - intros f Hg Ho. unfold g'. rewrite Ho. exact Hg.
Qed.

(** a new, empty address space rooted at an unowned frame *)
Lemma ginv_add_root s roots g F :
  GInv s roots g -> g F = None -> WF s F (own_root F) -> ~ In F (orc s) ->
  let g' : gmap := fun f => if f =? F then Some (F, []) else g f in
  GInv s (F :: roots) g' /\ (forall R f, In R roots -> proj g' R f = proj g R f) /\ (forall f, f <> F -> g' f = g f).
Proof.
  intros G HgF WFF HnF g'.
  assert (HFr: ~ In F roots) by (intros H; rewrite (root_owned s roots g F G H) in HgF; discriminate).
  assert (PR: forall R f, In R roots -> proj g' R f = proj g R f).
  { intros R f HR. unfold proj, g'. destruct (N.eqb_spec f F) as [->|]; [|reflexivity].
    rewrite HgF. destruct (N.eqb_spec F R) as [->|]; [contradiction | reflexivity]. }
  split; [|split; [exact PR|]].
  - split.
    + intros R [<-|HR].
      * apply (WF_ext s F (own_root F)); [|exact WFF]. intros f. unfold own_root, proj, g'.
        destruct (N.eqb_spec f F) as [->|Hf]; [rewrite N.eqb_refl; reflexivity|].
        destruct (g f) as [[R' p]|] eqn:E; [|reflexivity]. destruct (N.eqb_spec R' F) as [->|]; [|reflexivity].
        exfalso. apply HFr. exact (gi_in _ _ _ G f F p E).
      * apply (WF_ext s R (proj g R)); [intros f; symmetry; apply PR; exact HR | exact (gi_wf _ _ _ G R HR)].
    + intros f R p. unfold g'. destruct (N.eqb_spec f F); intros E; [inversion E; left; reflexivity | right; exact (gi_in _ _ _ G f R p E)].
    + exact (gi_nodup _ _ _ G).
    + intros f Hin Hz. destruct (gi_fresh _ _ _ G f Hin Hz) as [B1 B2]. split; [exact B1|].
      unfold g'. destruct (N.eqb_spec f F) as [->|]; [contradiction | exact B2].
    + right. exact (gi_act _ _ _ G).
  - intros f Hf. unfold g'. destruct (N.eqb_spec f F); [congruence | reflexivity].
Qed.
