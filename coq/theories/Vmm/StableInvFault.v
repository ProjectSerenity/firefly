(** [fault_stable] (Vmm/FaultTrans.v) holds on the domain of C06_cow_ok: see Vmm/StableInv.v.  The proof follows
    Vmm/PtCow.v [cow_ok] step by step (allocation, temporary mapping, copy, unmapping) to show that the leaf table of the
    faulting page is still reached by the same path afterwards. *)
From Coq Require Import NArith ZArith Lia List Bool.
From Coq Require Import ZifyBool ZifyN ZifyNat.
From FF Require Import Lib.Word Lib.GoOps Gen.Consts_mm_vmm Vmm.Region Vmm.Pt Vmm.PtMem Vmm.PtArith Vmm.PtTree Vmm.PtMap Vmm.PtOps
     Vmm.PtTheorems Vmm.PtFault Vmm.PtCow Vmm.PtAccess Vmm.StableInv.
From FF Require Vmm.FaultTrans Vmm.PdtTrans Vmm.MapTrans Gen.Trans_vmm_fault.
Module F := FF.Vmm.FaultTrans.
Import ListNotations.
Local Open Scope N_scope.

(** the address walk computes for the leaf entry of a page *)
Lemma leaf_item page p :
  In (last_level, p) (walk_items (frame_addr page)) ->
  p = add64 (wwin (firstn 3 (ixs page))) (shl64 (hw_idx page 3) 3).
Proof.
  unfold walk_items. rewrite go_levels_val, last_level_val. cbn [walk_items_from].
  set (va := frame_addr page).
  destruct (entry_index_hw va) as (E0 & E1 & E2 & E3).
  assert (Hva : forall k, k <= 3 -> hw_idx (N.shiftr va 12) k = hw_idx page k) by (apply frame_addr_idx).
  rewrite Hva in E0, E1, E2, E3 by lia.
  intros [E|[E|[E|[E|[]]]]]; try discriminate E. injection E as <-.
  assert (A0 : entry_addr vmm_pdtVirtualAddr va 39 9 = add64 (wwin []) (shl64 (hw_idx page 0) 3))
    by (unfold entry_addr; rewrite pointer_shift_val, E0; reflexivity).
  rewrite A0, (wwin_next [] (hw_idx page 0)) by (try constructor; try apply hw_idx_lt; cbn; lia).
  assert (A1 : entry_addr (wwin ([] ++ [hw_idx page 0])) va 30 9 = add64 (wwin [hw_idx page 0]) (shl64 (hw_idx page 1) 3))
    by (unfold entry_addr; rewrite pointer_shift_val, E1; reflexivity).
  rewrite A1, (wwin_next [hw_idx page 0] (hw_idx page 1)) by (repeat constructor; try apply hw_idx_lt; cbn; lia).
  assert (A2 : entry_addr (wwin ([hw_idx page 0] ++ [hw_idx page 1])) va 21 9 = add64 (wwin [hw_idx page 0; hw_idx page 1]) (shl64 (hw_idx page 2) 3))
    by (unfold entry_addr; rewrite pointer_shift_val, E2; reflexivity).
  rewrite A2, (wwin_next [hw_idx page 0; hw_idx page 1] (hw_idx page 2)) by (repeat constructor; try apply hw_idx_lt; cbn; lia).
  unfold entry_addr. rewrite pointer_shift_val, E3. reflexivity.
Qed.

Theorem fault_stable_inv s A own addr :
  Inv s A A own ->
  let page := page_from_addr addr in
  hw_idx page 0 <> 511 -> ~ same_page page temp_page ->
  (forall e, cow_pre s A page = Some e ->
     backed s (hw_frame e) = true /\ own (hw_frame e) = None /\ ~ In (hw_frame e) (orc s)) ->
  F.fault_stable addr s.
Proof.
  intros HI page H511 Hnt Hdata.
  intros p f i s1 cp s2 pg src dst s4' e4 Hin Hrp Hfw Hcw Hal Hmt Hs Hd Hu.
  fold page in Hin, Hfw, Hs.
  pose proof (inv_wf _ _ _ _ HI) as W.
  (* the walk's result is the leaf entry of the page *)
  rewrite (fault_walk_spec A A page (frame_addr page) (frame_addr_idx page) s own HI H511) in Hfw.
  rewrite (dloc_aspace s A own page HI H511) in Hfw.
  destruct (aspace s A page) as [e|] eqn:Ea; [|discriminate].
  destruct (hw_P e) eqn:HP; [|discriminate].
  set (i3 := hw_idx page 3) in *. set (p3 := firstn 3 (ixs page)) in *.
  assert (Hl3 : (length p3 <= 3)%nat) by (unfold p3; rewrite firstn_length; apply Nat.le_min_l).
  destruct (follow s A p3) as [l|] eqn:Hfl; [|discriminate].
  injection Hfw as <- <-.
  destruct (aspace_of_follow s A own page l W Hfl H511) as [Eas Hol0].
  assert (Hel : ent s l i3 = e) by (rewrite Eas in Ea; fold i3 in Ea; congruence).
  assert (Hpre : cow_pre s A page = Some e).
  { unfold cow_pre. rewrite Ea, HP. unfold ent in Hel. rewrite Hel in Hcw. cbn [andb]. rewrite Hcw. reflexivity. }
  destruct (Hdata e Hpre) as (Hbsrc & Hosrc & Hnsrc).
  destruct (mmu_aspace s A A own page e HI eq_refl H511 Ea HP Hbsrc) as (_ & l' & Hfl' & _ & Hol).
  fold p3 in Hfl'. rewrite Hfl in Hfl'. injection Hfl' as <-.
  rewrite (leaf_item page p Hin). fold p3 i3.
  (* the allocation *)
  unfold alloc in Hal. destruct (orc s) as [|x r] eqn:Eo; [discriminate|].
  destruct (N.eqb_spec x 0) as [|Hx0]; cbn iota in Hal; [inversion Hal|]. injection Hal as Es1 Ecp. subst x.
  assert (HI1: Inv s1 A A own) by (rewrite <- Es1; eapply Inv_pop; eassumption).
  assert (He1: forall f i, ent s1 f i = ent s f i) by (intros; rewrite <- Es1; reflexivity).
  destruct (inv_fresh _ _ _ _ HI) as [F1 F2].
  destruct (F2 cp) as (Hbcp & Hocp & HcpA); [rewrite Eo; left; reflexivity | exact Hx0 |].
  assert (Hcp40: cp < 2 ^ 40) by (eapply backed_lt40; [exact (wf_arena _ _ _ W) | exact Hbcp]).
  assert (Hcpr: ~ In cp r).
  { rewrite Eo in F1. eapply ofr_head_fresh; eassumption. }
  assert (Horc1: orc s1 = r) by (rewrite <- Es1; reflexivity).
  (* the temporary mapping *)
  unfold map_temporary in Hmt.
  destruct (prot s1 && (cp =? zf s1)) eqn:Hg; [discriminate|].
  destruct (map_page temp_page cp P_RW s1) as [[s2' err]|] eqn:Hmp; [|discriminate].
  destruct (N.eqb_spec err 0) as [->|Hne]; [|exfalso; injection Hmt; intros; congruence]. injection Hmt as E2 Epg. subst s2' pg.
  assert (Hzg: zero_guard s1 cp P_RW = false) by (unfold zero_guard; rewrite Hg; reflexivity).
  destruct (map_ok s1 A A own temp_page cp P_RW HI1 temp_idx0 Hzg) as
      (s2' & err' & own2 & Hr & HI2 & Henv2 & _ & Hok & _ & Hfr2 & _ & (n2 & Hn2 & Hown2) & Qoff & Qpres & _).
  rewrite Hmp in Hr. injection Hr as E2 Ee'. subst s2' err'.
  destruct (Hok eq_refl) as (Hat2 & Htr2 & Hfl2).
  pose proof (inv_wf _ _ _ _ HI2) as W2.
  assert (Hbk2: forall f, backed s2 f = backed s f).
  { intros f0. rewrite (same_env_backed s1 s2 f0 Henv2). rewrite <- Es1. reflexivity. }
  assert (Hown2_none: forall f, own f = None -> ~ In f r -> own2 f = None).
  { intros f0 Hf0 Hnin. destruct (Hown2 f0) as [E | (_ & Hin' & _)]; [rewrite E; exact Hf0|].
    exfalso. apply Hnin. rewrite Horc1 in Hin'. eapply in_firstn; exact Hin'. }
  assert (Ho2cp: own2 cp = None) by (apply Hown2_none; assumption).
  assert (Hext2: forall f p, own f = Some p -> own2 f = Some p).
  { intros f0 p0 Hp. destruct (Hown2 f0) as [E | (E & _)]; [rewrite E; exact Hp | rewrite Hp in E; discriminate]. }
  assert (Hlt3: Forall (fun x => x < 512) p3) by (apply firstn3_lt).
  assert (Hhd3: hd 0 ([] ++ p3) <> 511) by exact H511.
  assert (Hfl2': follow s2 A p3 = Some l).
  { destruct Henv2 as (E1 & E2 & _).
    apply (follow_mono s1 s2 A own A [] p3 l (inv_wf _ _ _ _ HI1) (wf_root _ _ _ W) E1 E2); try assumption.
    rewrite <- Es1. exact Hfl. }
  assert (Hel2: ent s2 l i3 = e).
  { rewrite (Qoff l p3 i3 Hol), He1; [exact Hel|].
    unfold p3, i3. rewrite <- ixs_split. intros E. apply Hnt. exact E. }
  assert (Ea2: aspace s2 A page = Some e).
  { destruct (aspace_of_follow s2 A own2 page l W2 Hfl2' H511) as [E _]. rewrite E. fold i3. rewrite Hel2. reflexivity. }
  assert (Hsrc: resolve_page s2 (frame_addr page) = Some (hw_frame e)).
  { rewrite resolve_page_mmu.
    destruct (mmu_aspace s2 A A own2 page e HI2 eq_refl H511 Ea2 HP) as [M0 _]; [rewrite Hbk2; exact Hbsrc | exact M0]. }
  set (tleaf := set_flags (set_frame 0 cp) P_RW) in *.
  destruct (link_entry cp Hcp40) as (LP & LPS & LF). fold tleaf in LP, LPS, LF.
  assert (Hdst: resolve_page s2 (frame_addr temp_page) = Some cp).
  { rewrite resolve_page_mmu.
    destruct (mmu_aspace s2 A A own2 temp_page tleaf HI2 eq_refl temp_idx0 Hat2 LP) as [M0 _]; [rewrite LF, Hbk2; exact Hbcp|].
    rewrite LF in M0. exact M0. }
  rewrite Hsrc in Hs. injection Hs as <-. rewrite Hdst in Hd. injection Hd as <-.
  set (s3 := set_mem s2 (cpy (mem s2) (hw_frame e) cp)) in *.
  assert (He3: forall f i, ent s3 f i = if f =? cp then ent s2 (hw_frame e) i else ent s2 f i).
  { intros. unfold s3, ent. cbn [mem set_mem]. apply rd_cpy. }
  assert (Hn3: forall f, f <> cp -> forall i, ent s3 f i = ent s2 f i).
  { intros f0 Hf0 i0. rewrite He3. destruct (N.eqb_spec f0 cp); [congruence|reflexivity]. }
  assert (HI3: Inv s3 A A own2).
  { apply (Inv_ent_eq s2 s3 A A own2 HI2); try reflexivity.
    intros f0 i0 [-> | [-> | (p0 & Hop & _)]]; apply Hn3; congruence. }
  pose proof (inv_wf _ _ _ _ HI3) as W3.
  destruct (unmap_ok s3 A A own2 temp_page HI3 temp_idx0) as (s4 & err4 & Hr4 & Herr4 & HI4 & Henv4 & Horc4 & Hinv4 & Hok4).
  rewrite Hu in Hr4. injection Hr4 as <- <-.
  assert (Hfl3': follow s3 A p3 = Some l).
  { apply (follow_mono s2 s3 A own2 A [] p3 l W2 (wf_root _ _ _ W2) eq_refl eq_refl); try assumption.
    intros f0 q i0 Hq _ _. apply Hn3. intros E. rewrite E, Ho2cp in Hq. discriminate. }
  assert (Hfl4': follow s4' A p3 = Some l).
  { destruct Herr4 as [E0|E0].
    - destruct (Hok4 E0) as (et & _ & _ & _ & _ & _ & _ & Uoff).
      destruct Henv4 as (E1 & E2 & _).
      apply (follow_mono s3 s4' A own2 A [] p3 l W3 (wf_root _ _ _ W3) E1 E2); try assumption.
      intros f0 q i0 Hq Hlq _. apply (Uoff f0 q i0 Hq). intros E. apply (f_equal (@length N)) in E.
        rewrite app_length, ixs_length in E. cbn [length] in E. clear -E Hlq. lia.
    - destruct (Hinv4 E0) as [-> _]. exact Hfl3'. }
  assert (Hol4 : own2 l = Some p3) by (apply Hext2; exact Hol).
  assert (Hb4 : backed s4' l = true) by (destruct (wf_owned _ _ _ (inv_wf _ _ _ _ HI4) l p3 Hol4) as (Hb & _); exact Hb).
  assert (Hhd4 : hd 0 (p3 ++ [i3]) <> 511) by (unfold p3, i3; rewrite <- ixs_split; exact H511).
  split.
  - eapply (resolve_entry s4' A A p3 l i3); try eassumption.
    + exact (inv_cr3 _ _ _ _ HI4).
    + exact (inv_rec _ _ _ _ HI4).
    + apply hw_idx_lt.
  - eapply (entry_stable_inv s4' A A own2 p3 l i3); try eassumption. apply hw_idx_lt.
Qed.

(** the tie on the whole domain *)
Theorem fault_handler_is_translation_inv s A own addr regs tr0 :
  Inv s A A own -> addr < two64 -> PdtTrans.mem_w64 s ->
  let page := page_from_addr addr in
  hw_idx page 0 <> 511 -> ~ same_page page temp_page ->
  (forall e, cow_pre s A page = Some e ->
     backed s (hw_frame e) = true /\ own (hw_frame e) = None /\ ~ In (hw_frame e) (orc s)) ->
  F.fres (Trans_vmm_fault.go_vmm_pageFaultHandler (Trans_vmm_fault.mk_go_vmm_world tr0 s) regs
            PdtTrans.o_flush F.o_memcopy PdtTrans.o_maptemp MapTrans.o_alloc F.o_nonrec (F.o_cr2 addr) PdtTrans.o_unmap)
  = F.fault_res addr regs (page_fault addr s).
Proof.
  intros HI Ha Hw page H511 Hnt Hdata.
  apply F.fault_handler_is_translation; try assumption.
  eapply fault_stable_inv; eassumption.
Qed.
