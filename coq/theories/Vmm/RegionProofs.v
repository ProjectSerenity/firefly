(** Proofs about Vmm/Region.v (C07). *)
From Coq Require Import NArith ZArith Lia List Bool.
From Coq Require Import ZifyBool ZifyN ZifyNat.
From FF Require Import Lib.Word Gen.Consts_mm_vmm Vmm.Region.
Import ListNotations.
Local Open Scope N_scope.

(** Obligations on the regenerated constants. *)
Lemma PageSize_pow2 : PageSize = 2 ^ PageShift.
Proof. reflexivity. Qed.
Lemma PageSize_val : PageSize = 4096.
Proof. reflexivity. Qed.
Lemma PageShift_val : PageShift = 12.
Proof. reflexivity. Qed.
Lemma temp_aligned : vmm_tempMappingAddr mod PageSize = 0.
Proof. reflexivity. Qed.
Lemma temp_lt : vmm_tempMappingAddr < two64.
Proof. reflexivity. Qed.
Lemma initial_is_temp : vmm_earlyReserveInitial = vmm_tempMappingAddr.
Proof. reflexivity. Qed.

Definition ceil_pages (s : N) : N := (s + 4095) / 4096.

Lemma round_up_eq s : round_up s = w64 (s + 4095) - w64 (s + 4095) mod 4096.
Proof.
  unfold round_up. rewrite PageSize_pow2, andnot_pow2. reflexivity.
Qed.

Lemma round_up_nowrap s : s + 4095 < two64 -> round_up s = ceil_pages s * 4096.
Proof.
  intros H. rewrite round_up_eq, w64_small by exact H. unfold ceil_pages. lia.
Qed.

Lemma shiftr_round_up s : s + 4095 < two64 -> N.shiftr (round_up s) PageShift = ceil_pages s.
Proof.
  intros H. rewrite N.shiftr_div_pow2. change (2 ^ PageShift) with 4096. rewrite (round_up_nowrap s H).
  apply N.div_mul. discriminate.
Qed.

Lemma round_up_wrap s : s < two64 -> two64 <= s + 4095 -> round_up s < s.
Proof.
  intros Hs H. rewrite round_up_eq. unfold w64, two64 in *. lia.
Qed.

Lemma round_up_ge s : s + 4095 < two64 -> s <= round_up s /\ round_up s < s + 4096 /\ round_up s mod 4096 = 0.
Proof.
  intros H. rewrite round_up_nowrap by exact H. unfold ceil_pages. lia.
Qed.

Lemma round_up_idem s : s + 4095 < two64 -> round_up (round_up s) = round_up s.
Proof.
  intros H. pose proof (round_up_ge s H) as (H1 & H2 & H3).
  rewrite (round_up_eq (round_up s)). unfold w64, two64 in *. lia.
Qed.

Lemma round_up_ltb s : s < two64 -> (round_up s <? s) = (two64 <=? s + 4095).
Proof.
  intros Hs. destruct (N.leb_spec two64 (s + 4095)) as [H|H].
  - apply N.ltb_lt. apply round_up_wrap; assumption.
  - apply N.ltb_ge. apply round_up_ge; assumption.
Qed.

(** The reservation made by one call: address, length actually reserved. *)
Definition reserve_spec (last s : N) : option (N * N) :=
  if (ceil_pages s * 4096 <=? last) then Some (last - ceil_pages s * 4096, ceil_pages s * 4096) else None.

Lemma early_reserve_spec last s :
  s < two64 -> last <= vmm_tempMappingAddr ->
  early_reserve last s =
    match reserve_spec last s with
    | Some (a, len) => (a, Some a)
    | None => (last, None)
    end.
Proof.
  intros Hs Hl. unfold early_reserve, reserve_spec.
  rewrite round_up_ltb by exact Hs.
  pose proof temp_lt as Ht. unfold two64 in *.
  destruct (N.leb_spec 18446744073709551616 (s + 4095)) as [H|H].
  - destruct (N.leb_spec (ceil_pages s * 4096) last) as [H2|H2]; [|reflexivity].
    exfalso. unfold ceil_pages in H2. unfold vmm_tempMappingAddr in *. lia.
  - rewrite round_up_nowrap by exact H.
    destruct (N.leb_spec (ceil_pages s * 4096) last) as [H2|H2];
      destruct (N.ltb_spec last (ceil_pages s * 4096)) as [H3|H3]; try lia; reflexivity.
Qed.

(** ---- histories ---- *)

(** (address, length, requested size) of the reservation made by op [o] from cursor [last]. *)
Definition op_region (last : N) (o : op) : option (N * N * N) :=
  match o with
  | Reserve s | MapRegion _ s _ _ =>
      match reserve_spec last s with Some (a, len) => Some (a, len, s) | None => None end
  | IdMapRegion _ _ _ _ => None
  end.

Definition op_size (o : op) : N :=
  match o with Reserve s | MapRegion _ s _ _ | IdMapRegion _ s _ _ => s end.

Definition WFop (o : op) : Prop := op_size o < two64.

Fixpoint regions (last : N) (ops : list op) : list (N * N * N) :=
  match ops with
  | [] => []
  | o :: rest =>
      let last' := fst (step last o) in
      match op_region last o with
      | Some r => r :: regions last' rest
      | None => regions last' rest
      end
  end.

Definition WFstart (l0 : N) : Prop := l0 mod PageSize = 0 /\ l0 <= vmm_tempMappingAddr.

Definition region_ok (r : N * N * N) : Prop :=
  let '(a, len, req) := r in
  a mod PageSize = 0 /\ len mod PageSize = 0 /\ req <= len /\ len < req + PageSize /\ a + len <= vmm_tempMappingAddr.

(** every region lies wholly below [bound] *)
Definition below (bound : N) (r : N * N * N) : Prop := let '(a, len, _) := r in a + len <= bound.

Lemma early_reserve_rounded last s :
  s + 4095 < two64 -> early_reserve last (round_up s) = early_reserve last s.
Proof.
  intros H. unfold early_reserve. rewrite (round_up_idem s H).
  pose proof (round_up_ge s H) as (H1 & _ & _).
  replace (round_up s <? round_up s) with false by (symmetry; apply N.ltb_irrefl).
  replace (round_up s <? s) with false by (symmetry; apply N.ltb_ge; exact H1).
  reflexivity.
Qed.

Lemma map_region_cursor last f s fl fail :
  s < two64 ->
  fst (step last (MapRegion f s fl fail)) = fst (step last (Reserve s)).
Proof.
  intros Hs. cbn [step]. unfold map_region. rewrite round_up_ltb by exact Hs.
  destruct (N.leb_spec two64 (s + 4095)) as [H|H].
  - unfold early_reserve. rewrite round_up_ltb by exact Hs. apply N.leb_le in H. rewrite H. reflexivity.
  - rewrite (early_reserve_rounded last s H).
    destruct (early_reserve last s) as [l [a|]]; [destruct (map_loop _ _ _ _ _)|]; reflexivity.
Qed.

Lemma step_cursor last o :
  WFop o -> last <= vmm_tempMappingAddr ->
  fst (step last o) = match op_region last o with Some (a, _, _) => a | None => last end.
Proof.
  intros Hs Hl. destruct o as [s|f s fl fail|f s fl fail]; unfold WFop in Hs; cbn [op_size] in Hs.
  - cbn [step op_region]. rewrite early_reserve_spec by assumption.
    destruct (reserve_spec last s) as [[a len]|]; reflexivity.
  - rewrite map_region_cursor by assumption. cbn [step op_region]. rewrite early_reserve_spec by assumption.
    destruct (reserve_spec last s) as [[a len]|]; reflexivity.
  - cbn [step op_region]. destruct (identity_map_region _ _ _ _). reflexivity.
Qed.

Lemma reserve_spec_ok last s a len :
  s < two64 -> last mod PageSize = 0 -> last <= vmm_tempMappingAddr ->
  reserve_spec last s = Some (a, len) ->
  region_ok (a, len, s) /\ a + len = last /\ a <= last.
Proof.
  intros Hs Hm Hl. unfold reserve_spec.
  destruct (N.leb_spec (ceil_pages s * 4096) last) as [H|H]; [|discriminate].
  intros E; injection E as <- <-. unfold region_ok. rewrite PageSize_val in *.
  unfold ceil_pages in *. lia.
Qed.

Lemma regions_inv ops : forall last,
  Forall WFop ops -> WFstart last ->
  Forall region_ok (regions last ops) /\ Forall (below last) (regions last ops) /\
  ForallOrdPairs (fun r1 r2 => below (fst (fst r1)) r2) (regions last ops).
Proof.
  induction ops as [|o rest IH]; intros last Hwf [Hm Hl]; cbn [regions].
  - repeat split; constructor.
  - inversion Hwf as [|? ? Ho Hrest]; subst.
    rewrite step_cursor by assumption.
    destruct (op_region last o) as [[[a len] req]|] eqn:E.
    + assert (Hr: region_ok (a, len, req) /\ a + len = last /\ a <= last /\ req = op_size o).
      { destruct o as [s|f s fl fail|f s fl fail]; cbn [op_region op_size] in *; try discriminate;
          destruct (reserve_spec last s) as [[a' len']|] eqn:E2; try discriminate;
          inversion E; subst; destruct (reserve_spec_ok last req a len Ho Hm Hl E2) as (?&?&?); auto. }
      destruct Hr as (Hok & Hsum & Hle & _).
      assert (Hs: WFstart a).
      { split; [|lia]. unfold region_ok in Hok. tauto. }
      destruct (IH a Hrest Hs) as (I1 & I2 & I3).
      repeat split.
      * constructor; assumption.
      * constructor; [unfold below; lia|].
        eapply Forall_impl; [|exact I2]. intros [[a' l'] r']; unfold below; lia.
      * constructor; [|exact I3]. exact I2.
    + apply IH; [assumption|split; assumption].
Qed.

(** What the caller sees. *)
Lemma reserve_result last s :
  s < two64 -> last <= vmm_tempMappingAddr ->
  snd (step last (Reserve s)) = RReserve (match op_region last (Reserve s) with Some (a, _, _) => Some a | None => None end).
Proof.
  intros Hs Hl. cbn [step op_region]. rewrite early_reserve_spec by assumption.
  destruct (reserve_spec last s) as [[a len]|]; reflexivity.
Qed.

Lemma reserve_fail_iff last s :
  s < two64 -> last <= vmm_tempMappingAddr ->
  (snd (early_reserve last s) = None <-> last < ceil_pages s * 4096) /\
  (snd (early_reserve last s) = None -> fst (early_reserve last s) = last).
Proof.
  intros Hs Hl. rewrite early_reserve_spec by assumption. unfold reserve_spec.
  destruct (N.leb_spec (ceil_pages s * 4096) last) as [H|H]; cbn; split; try split; try discriminate; try lia; auto.
Qed.

(** ---- region mapping ---- *)
Definition consecutive (page frame flags count : N) : list mapcall :=
  map (fun i => (w64 (page + N.of_nat i), w64 (frame + N.of_nat i), flags)) (seq 0 (N.to_nat count)).

Lemma map_loop_ok page frame flags count :
  map_loop page frame flags count None = (consecutive page frame flags count, true).
Proof. reflexivity. Qed.

Lemma map_loop_fail page frame flags count k :
  k < count -> map_loop page frame flags count (Some k) = (consecutive page frame flags (k + 1), false).
Proof.
  intros H. unfold map_loop. apply N.ltb_lt in H. rewrite H. reflexivity.
Qed.

Lemma page_of_addr_lt a : a < two64 -> page_of_addr a < two64.
Proof.
  intros Ha. unfold page_of_addr. rewrite N.shiftr_div_pow2, PageSize_pow2, andnot_pow2.
  change (2 ^ PageShift) with 4096. lia.
Qed.

Lemma page_of_addr_aligned a : a mod 4096 = 0 -> a < two64 -> page_of_addr a = a / 4096 /\ page_of_addr a * 4096 = a.
Proof.
  intros Hm Hl. unfold page_of_addr. rewrite PageSize_pow2, andnot_pow2, N.shiftr_div_pow2.
  change (2 ^ PageShift) with 4096. rewrite Hm. split; [f_equal; lia|].
  replace (a - 0) with a by lia. lia.
Qed.

Lemma map_region_ok last f s fl :
  s < two64 -> WFstart last ->
  match reserve_spec last s with
  | Some (a, len) =>
      map_region last f s fl None = (a, consecutive (a / 4096) f fl (ceil_pages s), Some (a / 4096))
      /\ (a / 4096) * 4096 = a /\ ceil_pages s * 4096 = len
  | None => map_region last f s fl None = (last, [], None)
  end.
Proof.
  intros Hs [Hm Hl]. unfold map_region. rewrite round_up_ltb by exact Hs.
  unfold reserve_spec.
  destruct (N.leb_spec two64 (s + 4095)) as [H|H].
  - destruct (N.leb_spec (ceil_pages s * 4096) last) as [H2|H2]; [|reflexivity].
    exfalso. pose proof temp_lt. unfold ceil_pages, two64 in *. lia.
  - rewrite (early_reserve_rounded last s H), (early_reserve_spec last s Hs Hl). unfold reserve_spec.
    destruct (N.leb_spec (ceil_pages s * 4096) last) as [H4|H4]; [|reflexivity].
    rewrite PageSize_val in Hm.
    assert (Ha: (last - ceil_pages s * 4096) mod 4096 = 0) by lia.
    assert (Hlt: last - ceil_pages s * 4096 < two64) by (pose proof temp_lt; lia).
    destruct (page_of_addr_aligned _ Ha Hlt) as [P1 P2].
    rewrite P1. rewrite map_loop_ok.
    rewrite (shiftr_round_up s H).
    repeat split; lia.
Qed.

Lemma identity_map_region_ok f s fl :
  s + 4095 < two64 -> f + ceil_pages s < two64 ->
  identity_map_region f s fl None = (consecutive f f fl (ceil_pages s), Some f).
Proof.
  intros Hs Hf. unfold identity_map_region.
  assert (Hs': s < two64) by lia.
  rewrite round_up_ltb by exact Hs'.
  destruct (N.leb_spec two64 (s + 4095)) as [H|H]; [lia|].
  rewrite (shiftr_round_up s H).
  rewrite w64_small by exact Hf.
  destruct (N.ltb_spec f (f + ceil_pages s)) as [H2|H2].
  - replace (f + ceil_pages s - f) with (ceil_pages s) by lia. rewrite map_loop_ok. reflexivity.
  - assert (ceil_pages s = 0) by lia. rewrite H0. reflexivity.
Qed.

Lemma region_wrap_rejected last f s fl fail :
  s < two64 -> two64 <= s + 4095 ->
  early_reserve last s = (last, None) /\
  map_region last f s fl fail = (last, [], None) /\
  identity_map_region f s fl fail = ([], None).
Proof.
  intros Hs H. unfold early_reserve, map_region, identity_map_region.
  rewrite round_up_ltb by exact Hs. apply N.leb_le in H. rewrite H. auto.
Qed.
