(** Unmap, pteForAddress/Translate and the fault handler's walk on well-formed trees; leaf writes. *)
From Coq Require Import NArith ZArith Lia List Bool.
From Coq Require Import ZifyBool ZifyN ZifyNat.
From FF Require Import Lib.Word Gen.Consts_mm_vmm Vmm.Region Vmm.Pt Vmm.PtMem Vmm.PtArith Vmm.PtTree Vmm.PtMap.
Import ListNotations.
Local Open Scope N_scope.

(** * [look] is [follow] plus one raw read *)
Lemma look_follow s t q j :
  look s t (q ++ [j]) = match follow s t q with
                        | Some l => if backed s l then Some (ent s l j) else None
                        | None => None
                        end.
Proof.
  revert t. induction q as [|i r IH]; intros t.
  - cbn [app follow]. apply look_one.
  - cbn [app follow]. destruct (r ++ [j]) as [|i2 r2] eqn:E.
    + destruct r; discriminate.
    + rewrite look_cons. destruct (backed s t && usable (ent s t i)); [|reflexivity].
      apply IH.
Qed.

Lemma ixs_split pg : ixs pg = firstn 3 (ixs pg) ++ [hw_idx pg 3].
Proof. reflexivity. Qed.

Lemma split_last4 (is : list N) : length is = 4%nat -> exists q j, is = q ++ [j] /\ length q = 3%nat.
Proof.
  intros H. destruct is as [|a [|b [|c [|d [|e r]]]]]; try discriminate.
  exists [a; b; c], d. split; reflexivity.
Qed.

(** * Writing one entry of a last-level table *)
Lemma leaf_write s A T own l p3 j v a :
  Inv s A T own -> follow s T p3 = Some l -> length p3 = 3%nat -> Forall (fun x => x < 512) p3 -> hd 0 p3 <> 511 ->
  let s' := flush (wr_st s l j v) a in
  Inv s' A T own /\ same_env s s' /\ orc s' = orc s /\ flog s' = a :: flog s /\
  (forall f i, f <> l \/ i <> j -> ent s' f i = ent s f i) /\ ent s' l j = v /\ own l = Some p3 /\
  look s' T (p3 ++ [j]) = Some v /\
  (forall q j', length q = 3%nat -> Forall (fun x => x < 512) q -> hd 0 q <> 511 -> q ++ [j'] <> p3 ++ [j] ->
       look s' T (q ++ [j']) = look s T (q ++ [j'])).
Proof.
  intros HI Hfl Hl Hlt3 Hhd3 s'.
  pose proof (inv_wf _ _ _ _ HI) as W.
  assert (Ho: own l = Some p3).
  { change p3 with ([] ++ p3). eapply follow_own; try eassumption.
    - exact (wf_root _ _ _ W).
    - cbn [length]. lia. }
  assert (He: forall f i, ent s' f i = if (f =? l) && (i =? j) then v else ent s f i).
  { intros. unfold s'. rewrite ent_flush. apply ent_wr. }
  assert (Hnl: forall f i, f <> l \/ i <> j -> ent s' f i = ent s f i).
  { intros f i Hd. rewrite He. destruct (N.eqb_spec f l); destruct (N.eqb_spec i j); cbn [andb]; try reflexivity.
    destruct Hd; congruence. }
  assert (HlT: l <> T) by (intros E; rewrite E, (wf_root _ _ _ W) in Ho; inversion Ho as [E2]; rewrite <- E2 in Hl; discriminate).
  assert (HlA: l <> A).
  { destruct (inv_A _ _ _ _ HI) as [HA|HA]; [rewrite HA; exact HlT | intros E; rewrite E, HA in Ho; discriminate]. }
  assert (Ef: forall q, length q = 3%nat -> Forall (fun x => x < 512) q -> hd 0 q <> 511 -> follow s' T q = follow s T q).
  { intros q Hlq Hlt Hhd. eapply (follow_frame s s' T own T []); try reflexivity; try eassumption.
    - exact (wf_root _ _ _ W).
    - intros f p i Hp _ Hlp. cbn [length] in Hlp. apply Hnl. left. intros E. rewrite E, Ho in Hp. inversion Hp as [E2]. rewrite <- E2 in Hlp. lia.
    - cbn [length]. lia. }
  destruct (wf_owned _ _ _ W l p3 Ho) as (Hb & _).
  split.
  { apply (Inv_ent_eq s s' A T own HI); try reflexivity.
    intros f i [-> | [-> | (p & Hop & Hlp)]]; apply Hnl; left; try congruence.
    intros E. rewrite E, Ho in Hop. inversion Hop as [E2]. rewrite <- E2 in Hlp. lia. }
  split; [repeat split|]. split; [reflexivity|]. split; [reflexivity|]. split; [exact Hnl|].
  split; [rewrite He, !N.eqb_refl; reflexivity|]. split; [exact Ho|].
  split.
  { rewrite look_follow, Ef, Hfl by assumption. replace (backed s' l) with (backed s l) by reflexivity.
    rewrite Hb, He, !N.eqb_refl. reflexivity. }
  intros q j' Hlq Hlt Hhd Hne.
  rewrite !look_follow, Ef by assumption.
  destruct (follow s T q) as [l'|] eqn:Efq; [|reflexivity].
  replace (backed s' l') with (backed s l') by reflexivity.
  rewrite Hnl; [reflexivity|].
  destruct (N.eq_dec l' l) as [E|E]; [|left; exact E]. right. intros Ej. apply Hne.
  assert (Ho': own l' = Some q).
  { change q with ([] ++ q). eapply follow_own; try eassumption.
    - exact (wf_root _ _ _ W).
    - cbn [length]. lia. }
  rewrite E, Ho in Ho'. inversion Ho'. subst. reflexivity.
Qed.

(** * Descending through present entries *)
Section Descend.
  Variables (A T pg va : N).
  Hypothesis Hva : forall k, k <= 3 -> hw_idx (N.shiftr va 12) k = hw_idx pg k.

  Lemma descend_leaf pre s own t :
    length pre = 3%nat -> Pre A T pg pre s own t ->
    resolve s (entry_addr (wwin pre) va 12 9) = Some (t, hw_idx pg 3) /\ skipn (length pre) (ixs pg) = [hw_idx pg 3].
  Proof.
    intros Hl HP.
    destruct (pre_table A T pg pre s own t HP ltac:(lia)) as (Ho & Hb & Hlt & Hix & Hhd & Hsn).
    destruct HP as (HI & Hf & Hp & H511).
    split; [|rewrite Hl; reflexivity].
    unfold entry_addr. rewrite pointer_shift_val.
    destruct (entry_index_hw va) as (_ & _ & _ & E3). rewrite E3, Hva by lia.
    eapply resolve_entry; try eassumption.
    - exact (inv_cr3 _ _ _ _ HI).
    - exact (inv_rec _ _ _ _ HI).
    - lia.
    - apply hw_idx_lt.
  Qed.

  (** where the read-only walks end: the location of the leaf entry if all four levels are present *)
  Fixpoint dloc (s : st) (t : N) (is : list N) : option (N * N) :=
    match is with
    | [] => None
    | [i] => if hw_P (ent s t i) then Some (t, i) else None
    | i :: r => if hw_P (ent s t i) then dloc s (hw_frame (ent s t i)) r else None
    end.

  Lemma dloc_cons s t i i2 r2 :
    dloc s t (i :: i2 :: r2) = if hw_P (ent s t i) then dloc s (hw_frame (ent s t i)) (i2 :: r2) else None.
  Proof. reflexivity. Qed.

  Lemma skipn_S_nonempty k : (k <= 2)%nat -> exists i2 r2, skipn (S k) (ixs pg) = i2 :: r2.
  Proof.
    intros Hk. unfold ixs. destruct k as [|[|[|n]]]; cbn; try (do 2 eexists; reflexivity). lia.
  Qed.

  (** pteForAddress *)
  Lemma pte_level pre sh rest s own :
    (length pre <= 2)%nat -> entry_index va sh 9 = ix pg (length pre) ->
    (forall t' acc, Pre A T pg (pre ++ [ix pg (length pre)]) s own t' ->
        pte_walk rest (wwin (pre ++ [ix pg (length pre)])) va s acc = Ok (dloc s t' (skipn (S (length pre)) (ixs pg)))) ->
    forall t acc, Pre A T pg pre s own t ->
        pte_walk ((sh, 9) :: rest) (wwin pre) va s acc = Ok (dloc s t (skipn (length pre) (ixs pg))).
  Proof.
    intros Hl Hidx IH t acc HP.
    destruct (descend_step A T pg va pre sh s own t Hl Hidx HP) as (Hres & Hnext & HPS & Hskip & Hdown).
    destruct (skipn_S_nonempty (length pre) Hl) as (i2 & r2 & E2).
    cbn [pte_walk]. rewrite Hres. fold (ent s t (ix pg (length pre))). rewrite has_present_hw, Hskip, E2, dloc_cons.
    destruct (hw_P (ent s t (ix pg (length pre)))) eqn:HPres; cbn [negb]; [|reflexivity].
    rewrite Hnext, <- E2. apply IH. apply Hdown. reflexivity.
  Qed.

  Lemma pte_walk_spec s own :
    Inv s A T own -> hw_idx pg 0 <> 511 ->
    pte_walk go_levels vmm_pdtVirtualAddr va s None = Ok (dloc s T (ixs pg)).
  Proof.
    intros HI H511. rewrite <- wwin_nil.
    apply (four_levels pg va Hva (fun levels _ k pre => forall t' acc, Pre A T pg pre s own t' ->
              pte_walk levels (wwin pre) va s acc = Ok (dloc s t' (skipn k (ixs pg))))).
    - intros pre sh rest Hl Hidx _ _ IH. exact (pte_level pre sh rest s own Hl Hidx IH).
    - intros t' acc HP. destruct (descend_leaf [ix pg 0; ix pg 1; ix pg 2] s own t' eq_refl HP) as [Hres _].
      cbn [pte_walk]. rewrite Hres. fold (ent s t' (hw_idx pg 3)). rewrite has_present_hw.
      change (skipn 3 (ixs pg)) with [hw_idx pg 3]. cbn [dloc].
      destruct (hw_P (ent s t' (hw_idx pg 3))); reflexivity.
    - split; [exact HI|]. split; [reflexivity|]. split; [reflexivity | exact H511].
  Qed.

  (** the fault handler's walk *)
  Lemma fault_level pre sh rest s own :
    (length pre <= 2)%nat -> entry_index va sh 9 = ix pg (length pre) ->
    (N.of_nat (length pre) =? last_level) = false ->
    (forall t', Pre A T pg (pre ++ [ix pg (length pre)]) s own t' ->
        fault_walk rest (N.of_nat (length pre) + 1) (wwin (pre ++ [ix pg (length pre)])) va s None =
        Ok (dloc s t' (skipn (S (length pre)) (ixs pg)))) ->
    forall t, Pre A T pg pre s own t ->
        fault_walk ((sh, 9) :: rest) (N.of_nat (length pre)) (wwin pre) va s None = Ok (dloc s t (skipn (length pre) (ixs pg))).
  Proof.
    intros Hl Hidx Hlast IH t HP.
    destruct (descend_step A T pg va pre sh s own t Hl Hidx HP) as (Hres & Hnext & HPS & Hskip & Hdown).
    destruct (skipn_S_nonempty (length pre) Hl) as (i2 & r2 & E2).
    cbn [fault_walk]. rewrite Hres, Hlast. fold (ent s t (ix pg (length pre))). rewrite has_present_hw, Hskip, E2, dloc_cons.
    cbn [andb].
    destruct (hw_P (ent s t (ix pg (length pre)))) eqn:HPres; [|reflexivity].
    rewrite Hnext, <- E2. apply IH. apply Hdown. reflexivity.
  Qed.

  Lemma fault_walk_spec s own :
    Inv s A T own -> hw_idx pg 0 <> 511 ->
    fault_walk go_levels 0 vmm_pdtVirtualAddr va s None = Ok (dloc s T (ixs pg)).
  Proof.
    intros HI H511. rewrite <- wwin_nil.
    apply (four_levels pg va Hva (fun levels lvl k pre => forall t', Pre A T pg pre s own t' ->
              fault_walk levels lvl (wwin pre) va s None = Ok (dloc s t' (skipn k (ixs pg))))).
    - intros pre sh rest Hl Hidx _ Hlast IH. exact (fault_level pre sh rest s own Hl Hidx Hlast IH).
    - intros t' HP. destruct (descend_leaf [ix pg 0; ix pg 1; ix pg 2] s own t' eq_refl HP) as [Hres _].
      cbn [fault_walk]. rewrite Hres. fold (ent s t' (hw_idx pg 3)). rewrite has_present_hw.
      change (3 =? last_level) with true. cbn [andb].
      change (skipn 3 (ixs pg)) with [hw_idx pg 3]. cbn [dloc].
      destruct (hw_P (ent s t' (hw_idx pg 3))); reflexivity.
    - split; [exact HI|]. split; [reflexivity|]. split; [reflexivity | exact H511].
  Qed.

  (** Unmap: the result is explicit *)
  Fixpoint unmap_res (s : st) (t : N) (is : list N) : st * N :=
    match is with
    | [] => (s, E_OK)
    | [i] => (flush (wr_st s t i (clear_flags (ent s t i) vmm_FlagPresent)) va, E_OK)
    | i :: r => if hw_P (ent s t i) then unmap_res s (hw_frame (ent s t i)) r else (s, E_INVALID)
    end.

  Lemma unmap_res_cons s t i i2 r2 :
    unmap_res s t (i :: i2 :: r2) = if hw_P (ent s t i) then unmap_res s (hw_frame (ent s t i)) (i2 :: r2) else (s, E_INVALID).
  Proof. reflexivity. Qed.

  Lemma unmap_level pre sh rest s own :
    (length pre <= 2)%nat -> entry_index va sh 9 = ix pg (length pre) ->
    (N.of_nat (length pre) =? last_level) = false ->
    (forall t', Pre A T pg (pre ++ [ix pg (length pre)]) s own t' ->
        unmap_walk rest (N.of_nat (length pre) + 1) (wwin (pre ++ [ix pg (length pre)])) va s =
        Ok (unmap_res s t' (skipn (S (length pre)) (ixs pg)))) ->
    forall t, Pre A T pg pre s own t ->
        unmap_walk ((sh, 9) :: rest) (N.of_nat (length pre)) (wwin pre) va s = Ok (unmap_res s t (skipn (length pre) (ixs pg))).
  Proof.
    intros Hl Hidx Hlast IH t HP.
    destruct (descend_step A T pg va pre sh s own t Hl Hidx HP) as (Hres & Hnext & HPS & Hskip & Hdown).
    destruct (skipn_S_nonempty (length pre) Hl) as (i2 & r2 & E2).
    cbn [unmap_walk]. rewrite Hres, Hlast. fold (ent s t (ix pg (length pre))).
    rewrite has_present_hw, has_huge_hw, HPS, Hskip, E2, unmap_res_cons.
    destruct (hw_P (ent s t (ix pg (length pre)))) eqn:HPres; cbn [negb]; [|reflexivity].
    rewrite Hnext, <- E2. apply IH. apply Hdown. reflexivity.
  Qed.

  Lemma unmap_walk_spec s own :
    Inv s A T own -> hw_idx pg 0 <> 511 ->
    unmap_walk go_levels 0 vmm_pdtVirtualAddr va s = Ok (unmap_res s T (ixs pg)).
  Proof.
    intros HI H511. rewrite <- wwin_nil.
    apply (four_levels pg va Hva (fun levels lvl k pre => forall t', Pre A T pg pre s own t' ->
              unmap_walk levels lvl (wwin pre) va s = Ok (unmap_res s t' (skipn k (ixs pg))))).
    - intros pre sh rest Hl Hidx _ Hlast IH. exact (unmap_level pre sh rest s own Hl Hidx Hlast IH).
    - intros t' HP. destruct (descend_leaf [ix pg 0; ix pg 1; ix pg 2] s own t' eq_refl HP) as [Hres _].
      cbn [unmap_walk]. rewrite Hres. change (3 =? last_level) with true. cbn iota. reflexivity.
    - split; [exact HI|]. split; [reflexivity|]. split; [reflexivity | exact H511].
  Qed.
End Descend.

(** * The explicit results in terms of [follow] *)
Lemma descend_follow {X} s T own (g : N -> N -> X) (d : X) (rec : st -> N -> list N -> X) :
  (forall t i, rec s t [i] = g t i) ->
  (forall t i i2 r2, rec s t (i :: i2 :: r2) = if hw_P (ent s t i) then rec s (hw_frame (ent s t i)) (i2 :: r2) else d) ->
  WF s T own ->
  forall q t p j, own t = Some p -> Forall (fun x => x < 512) q -> (length p + length q <= 3)%nat -> hd 0 (p ++ q ++ [j]) <> 511 ->
  rec s t (q ++ [j]) = match follow s t q with Some l => g l j | None => d end.
Proof.
  intros R1 R2 W. induction q as [|i r IH]; intros t p j Ho Hlt Hlen Hhd.
  - cbn [app follow]. apply R1.
  - cbn [app follow]. destruct (r ++ [j]) as [|i2 r2] eqn:E; [destruct r; discriminate|].
    rewrite R2. inversion Hlt as [|? ? Hi Hr]; subst. cbn [length] in Hlen.
    pose proof (path_ne_rec p i (r ++ [j]) Hhd) as Hne.
    destruct (wf_owned _ _ _ W t p Ho) as (Hb & _).
    rewrite Hb, (wf_present_usable s T own t p i W Ho ltac:(lia) Hi Hne). cbn [andb].
    destruct (hw_P (ent s t i)) eqn:HP; [|reflexivity].
    destruct (wf_child _ _ _ W t p i Ho ltac:(lia) Hi Hne) as [_ Hc]. specialize (Hc HP).
    rewrite <- E. apply (IH _ (p ++ [i])); try assumption.
    + rewrite app_length. cbn [length]. lia.
    + rewrite <- app_assoc. exact Hhd.
Qed.

Lemma ixs_hd pg : hd 0 (ixs pg) = hw_idx pg 0.
Proof. reflexivity. Qed.

Lemma firstn3_lt pg : Forall (fun x => x < 512) (firstn 3 (ixs pg)).
Proof. unfold ixs. cbn [firstn]. repeat constructor; apply hw_idx_lt. Qed.

Lemma leaf_table_own s T own page l :
  WF s T own -> follow s T (firstn 3 (ixs page)) = Some l -> hw_idx page 0 <> 511 -> own l = Some (firstn 3 (ixs page)).
Proof.
  intros W Hf H511. apply (follow_own s T own T [] _ l W (wf_root _ _ _ W) Hf (firstn3_lt page)); [cbn; lia | exact H511].
Qed.

Lemma dloc_top s A T own pg :
  Inv s A T own -> hw_idx pg 0 <> 511 ->
  dloc s T (ixs pg) = match follow s T (firstn 3 (ixs pg)) with
                      | Some l => if hw_P (ent s l (hw_idx pg 3)) then Some (l, hw_idx pg 3) else None
                      | None => None
                      end.
Proof.
  intros HI H511. rewrite ixs_split at 1.
  apply (descend_follow s T own (fun l j => if hw_P (ent s l j) then Some (l, j) else None) None (fun s => dloc s) (fun _ _ => eq_refl) (dloc_cons s) (inv_wf _ _ _ _ HI) _ T []).
  - exact (wf_root _ _ _ (inv_wf _ _ _ _ HI)).
  - apply firstn3_lt.
  - cbn. lia.
  - cbn. exact H511.
Qed.

Lemma unmap_res_top va s A T own pg :
  Inv s A T own -> hw_idx pg 0 <> 511 ->
  unmap_res va s T (ixs pg) = match follow s T (firstn 3 (ixs pg)) with
                              | Some l => (flush (wr_st s l (hw_idx pg 3) (clear_flags (ent s l (hw_idx pg 3)) vmm_FlagPresent)) va, E_OK)
                              | None => (s, E_INVALID)
                              end.
Proof.
  intros HI H511. rewrite ixs_split at 1.
  apply (descend_follow s T own (fun l j => (flush (wr_st s l j (clear_flags (ent s l j) vmm_FlagPresent)) va, E_OK)) (s, E_INVALID)
           (fun s => unmap_res va s) (fun _ _ => eq_refl) (unmap_res_cons va s) (inv_wf _ _ _ _ HI) _ T []).
  - exact (wf_root _ _ _ (inv_wf _ _ _ _ HI)).
  - apply firstn3_lt.
  - cbn. lia.
  - cbn. exact H511.
Qed.

(** * Data accesses through the MMU *)
Lemma hw_walk_follow_leaf s ks t pg l :
  follow s t (map (hw_idx pg) ks) = Some l -> backed s l = true ->
  hw_P (ent s l (hw_idx pg 3)) = true -> backed s (hw_frame (ent s l (hw_idx pg 3))) = true ->
  hw_walk s (ks ++ [3]) t pg = Some (hw_frame (ent s l (hw_idx pg 3))).
Proof.
  revert t. induction ks as [|k rest IH]; intros t Hf Hb HP Hbf; cbn [map follow app hw_walk] in *.
  - inversion Hf; subst. rewrite Hb. fold (ent s l (hw_idx pg 3)). rewrite HP.
    change (3 <? 3) with false. rewrite andb_false_r. cbn [negb andb]. rewrite Hbf. reflexivity.
  - destruct (backed s t); [|discriminate]. cbn [andb] in Hf.
    fold (ent s t (hw_idx pg k)). unfold usable in Hf.
    destruct (hw_P (ent s t (hw_idx pg k))); [|discriminate].
    destruct (hw_PS (ent s t (hw_idx pg k))); [discriminate|].
    cbn [andb negb] in *. apply IH; assumption.
Qed.

(** a page whose leaf entry is present translates to the entry's frame *)
Lemma mmu_leaf s A va l :
  N.shiftr (cr3 s) 12 = A ->
  follow s A (firstn 3 (ixs (N.shiftr va 12))) = Some l -> backed s l = true ->
  hw_P (ent s l (hw_idx (N.shiftr va 12) 3)) = true ->
  backed s (hw_frame (ent s l (hw_idx (N.shiftr va 12) 3))) = true ->
  mmu s va = Some (hw_frame (ent s l (hw_idx (N.shiftr va 12) 3))).
Proof.
  intros Hcr Hf Hb HP Hbf. unfold mmu, hw_levels. rewrite Hcr.
  change [0; 1; 2; 3] with ([0; 1; 2] ++ [3]). apply hw_walk_follow_leaf; assumption.
Qed.

Lemma mmu_page s va va' : N.shiftr va 12 = N.shiftr va' 12 -> mmu s va = mmu s va'.
Proof. unfold mmu. intros ->. reflexivity. Qed.

(** in terms of the address space *)
Lemma mmu_aspace s A T own page e :
  Inv s A T own -> A = T -> hw_idx page 0 <> 511 ->
  aspace s T page = Some e -> hw_P e = true -> backed s (hw_frame e) = true ->
  mmu s (frame_addr page) = Some (hw_frame e) /\
  exists l, follow s T (firstn 3 (ixs page)) = Some l /\ ent s l (hw_idx page 3) = e /\ own l = Some (firstn 3 (ixs page)).
Proof.
  intros HI EA H511 Ha HP Hb. subst T.
  pose proof (inv_wf _ _ _ _ HI) as W.
  unfold aspace in Ha. rewrite ixs_split, look_follow in Ha.
  destruct (follow s A (firstn 3 (ixs page))) as [l|] eqn:Ef; [|discriminate].
  destruct (backed s l) eqn:Hbl; [|discriminate]. injection Ha as He.
  assert (Ho: own l = Some (firstn 3 (ixs page))).
  { eapply leaf_table_own; eassumption. }
  split; [|exists l; repeat split; assumption].
  assert (Ei: forall k, k <= 3 -> hw_idx (N.shiftr (frame_addr page) 12) k = hw_idx page k) by (apply frame_addr_idx).
  assert (Eix: ixs (N.shiftr (frame_addr page) 12) = ixs page).
  { unfold ixs. rewrite !Ei by lia. reflexivity. }
  rewrite <- He.
  rewrite <- (Ei 3) by lia.
  apply (mmu_leaf s A (frame_addr page) l (inv_cr3 _ _ _ _ HI)).
  - rewrite Eix. exact Ef.
  - exact Hbl.
  - rewrite Ei by lia. rewrite He. exact HP.
  - rewrite Ei by lia. rewrite He. exact Hb.
Qed.
