(** C04 [histories_full]: histories over Map / Unmap / Translate / MapTemporary / MapRegion /
    IdentityMapRegion / PageDirectoryTable.{Init, Map, Unmap, Activate} on any number of address spaces,
    with the allocator failing anywhere, refine an abstract machine root -> page -> (frame, flags). *)
From Coq Require Import NArith ZArith Lia List Bool.
From Coq Require Import ZifyBool ZifyN ZifyNat.
From FF Require Import Lib.Word Gen.Consts_mm_vmm Vmm.Region Vmm.RegionProofs Vmm.Pt Vmm.PtMem Vmm.PtArith Vmm.PtTree Vmm.PtMap Vmm.PtOps
     Vmm.PtTheorems Vmm.PtInit Vmm.PtPdt Vmm.PtFault Vmm.PtCow Vmm.PtZero Vmm.PtTemp Vmm.PtHist Vmm.PtKernel.
From FF Require Import Vmm.PtGlobal Vmm.PtRegion.
Import ListNotations.
Local Open Scope N_scope.

(** * The abstract machine *)
Record ast := mkA {
  am : N -> amap;          (* root frame -> page (its four table indices) -> (frame, flag bits) *)
  aact : N;                (* the active root *)
  atlb : list N;           (* addresses whose TLB entry was invalidated, most recent first *)
  aslot : N -> option N;   (* PageDirectoryTable values held by the client: slot -> initialised root *)
  alast : N;               (* earlyReserveLastUsed *)
  aroots : list N;         (* the address spaces that exist *)
  afree : list N;          (* frames the client may turn into new address spaces *)
  aprot : bool; azf : N;   (* the zero-frame guard: armed?, ReservedZeroedFrame *)
  apool : list N           (* frames that belong to the physical allocator (it hands out only these) *)
}.

Definition set_am (a : ast) (R : N) (m : amap) : ast :=
  mkA (fun R' => if R' =? R then m else am a R') (aact a) (atlb a) (aslot a) (alast a) (aroots a) (afree a) (aprot a) (azf a) (apool a).
Definition set_tlb (a : ast) (l : list N) : ast :=
  mkA (am a) (aact a) l (aslot a) (alast a) (aroots a) (afree a) (aprot a) (azf a) (apool a).
Definition set_alast (a : ast) (l : N) : ast :=
  mkA (am a) (aact a) (atlb a) (aslot a) l (aroots a) (afree a) (aprot a) (azf a) (apool a).
Definition set_aslot (a : ast) (k : N) (r : option N) : ast :=
  mkA (am a) (aact a) (atlb a) (fun k' => if k' =? k then r else aslot a k') (alast a) (aroots a) (afree a) (aprot a) (azf a) (apool a).
Definition set_aact (a : ast) (R : N) : ast :=
  mkA (am a) R (atlb a) (aslot a) (alast a) (aroots a) (afree a) (aprot a) (azf a) (apool a).

Definition set_azf (a : ast) (z : N) : ast :=
  mkA (am a) (aact a) (atlb a) (aslot a) (alast a) (aroots a) (afree a) (aprot a) z (apool a).
Definition set_aprot (a : ast) (b : bool) : ast :=
  mkA (am a) (aact a) (atlb a) (aslot a) (alast a) (aroots a) (afree a) b (azf a) (apool a).
Definition add_free (a : ast) (F : N) : ast :=
  mkA (am a) (aact a) (atlb a) (aslot a) (alast a) (aroots a) (F :: afree a) (aprot a) (azf a) (remove N.eq_dec F (apool a)).

Definition aeq (a1 a2 : ast) : Prop :=
  (forall R k, am a1 R k = am a2 R k) /\ aact a1 = aact a2 /\ atlb a1 = atlb a2 /\ (forall k, aslot a1 k = aslot a2 k) /\
  alast a1 = alast a2 /\ aroots a1 = aroots a2 /\ afree a1 = afree a2 /\ aprot a1 = aprot a2 /\ azf a1 = azf a2 /\ apool a1 = apool a2.

Definition leafv (f fl : N) : option (N * N) := if N.testbit fl 0 then Some (f, fl) else None.
Definition aguard (a : ast) (f fl : N) : bool := aprot a && (f =? azf a) && wants_rw fl.

Definition a_map (a : ast) (R p f fl va : N) : ast :=
  set_tlb (set_am a R (aupd (am a R) (ixs p) (leafv f fl))) (va :: atlb a).
Definition a_unmap (a : ast) (R p va : N) : ast :=
  set_tlb (set_am a R (aupd (am a R) (ixs p) None)) (va :: atlb a).

Definition a_map_inactive (a : ast) (R p f fl : N) : ast :=
  set_tlb (set_am a R (aupd (am a R) (ixs p) (leafv f fl))) (lea_of (aact a) :: frame_addr p :: lea_of (aact a) :: atlb a).
Definition a_touch_inactive (a : ast) : ast := set_tlb a (lea_of (aact a) :: lea_of (aact a) :: atlb a).
Definition a_unmap_inactive (a : ast) (R p : N) : ast :=
  set_tlb (set_am a R (aupd (am a R) (ixs p) None)) (lea_of (aact a) :: frame_addr p :: lea_of (aact a) :: atlb a).

Fixpoint a_range (a : ast) (R p0 f0 fl : N) (j : nat) : ast :=
  match j with
  | O => a
  | S j' => a_range (a_map a R p0 f0 fl (frame_addr p0)) R (p0 + 1) (f0 + 1) fl j'
  end.

Definition region_dom (a : ast) (start frame fl : N) (n : nat) : Prop :=
  N.land fl vmm_ptePhysPageMask = 0 /\ frame + N.of_nat n <= 2 ^ 40 /\
  forall j, (j < n)%nat -> hw_idx (start + N.of_nat j) 0 <> 511 /\ aguard a (frame + N.of_nat j) fl = false.

Definition a_init (a : ast) (k F : N) : ast :=
  mkA (fun R => if R =? F then (fun _ => None)
                else if R =? aact a then aupd (am a (aact a)) (ixs temp_page) None else am a R)
      (aact a) (vmm_tempMappingAddr :: vmm_tempMappingAddr :: atlb a)
      (fun k' => if k' =? k then Some F else aslot a k') (alast a) (F :: aroots a)
      (remove N.eq_dec F (afree a)) (aprot a) (azf a) (apool a).

Definition a_arm (a : ast) (F : N) : ast :=
  set_aprot (a_unmap (a_map (set_azf (add_free a F) F) (aact a) temp_page F P_RW vmm_tempMappingAddr)
                     (aact a) temp_page (frame_addr temp_page)) true.
Definition a_arm_fail (a : ast) (F : N) : ast := set_azf (add_free a F) F.

Definition AArm (a : ast) (r : N * N) (a' : ast) : Prop :=
  (r = (E_ALLOC, mm_InvalidFrame) /\ a' = set_azf a mm_InvalidFrame) \/
  exists F, F <> 0 /\ In F (apool a) /\ ~ In F (afree a) /\
            ((r = (0, F) /\ a' = a_arm a F) \/ (r = (E_ALLOC, F) /\ a' = a_arm_fail a F)).

Inductive qop :=
| QMap (page frame flags : N)
| QUnmap (page : N)
| QTranslate (va : N)
| QMapTemp (frame : N)
| QMapRegion (frame size flags : N)
| QIdMapRegion (frame size flags : N)
| QPdtInit (slot frame : N)
| QPdtMap (slot page frame flags : N)
| QPdtUnmap (slot page : N)
| QActivate (slot : N)
| QArm.

(** the operation of the executable model (Vmm/Pt.v [step], the function that is extracted and run against the code) *)
Definition to_op (o : qop) : op :=
  match o with
  | QMap p f fl => OMap p f fl
  | QUnmap p => OUnmap p
  | QTranslate va => OTranslate va
  | QMapTemp f => OMapTemp f
  | QMapRegion f sz fl => OMapRegion f sz fl
  | QIdMapRegion f sz fl => OIdMapRegion f sz fl
  | QPdtInit k f => OPdtInit k f
  | QPdtMap k p f fl => OPdtMap k p f fl
  | QPdtUnmap k p => OPdtUnmap k p
  | QActivate k => OPdtActivate k
  | QArm => OReserveZero
  end.

Definition page_ok (p f fl : N) : Prop := hw_idx p 0 <> 511 /\ f < 2 ^ 40 /\ N.land fl vmm_ptePhysPageMask = 0.

(** the quantifier: what a request must satisfy in abstract state [a] *)
Definition qdom (o : qop) (a : ast) : Prop :=
  match o with
  | QMap p f fl => page_ok p f fl
  | QUnmap p => hw_idx p 0 <> 511
  | QTranslate va => hw_idx (N.shiftr va 12) 0 <> 511
  | QMapTemp f => f < 2 ^ 40
  | QMapRegion f sz fl =>
      sz < two64 /\
      match reserve_spec (alast a) sz with
      | Some (a0, _) => region_dom a (a0 / 4096) f fl (N.to_nat (ceil_pages sz))
      | None => True
      end
  | QIdMapRegion f sz fl => sz + 4095 < two64 /\ region_dom a f f fl (N.to_nat (ceil_pages sz))
  | QPdtInit k F => k < 8 /\ In F (afree a) /\ aguard a F P_RW = false
  | QPdtMap k p f fl => k < 8 /\ aslot a k <> None /\ page_ok p f fl
  | QPdtUnmap k p => k < 8 /\ aslot a k <> None /\ hw_idx p 0 <> 511
  | QActivate k => k < 8 /\ aslot a k <> None
  | QArm => aprot a = false
  end.

Definition AMapStep (a : ast) (R p f fl : N) (r : N * N) (a' : ast) : Prop :=
  if R =? aact a then
    if aguard a f fl then r = (E_ZERO_RW, 0) /\ a' = a
    else (r = (0, 0) /\ a' = a_map a R p f fl (frame_addr p)) \/ (r = (E_ALLOC, 0) /\ a' = a)
  else
    (r = (0, 0) /\ aguard a f fl = false /\ a' = a_map_inactive a R p f fl) \/
    (r = (E_ALLOC, 0) /\ aguard a f fl = false /\ a' = a_touch_inactive a) \/
    (r = (E_ZERO_RW, 0) /\ aguard a f fl = true /\ a' = a_touch_inactive a).

Definition AUnmapStep (a : ast) (R p : N) (r : N * N) (a' : ast) : Prop :=
  if R =? aact a then
    (r = (0, 0) /\ a' = a_unmap a R p (frame_addr p)) \/ (r = (E_INVALID, 0) /\ a' = a /\ am a R (ixs p) = None)
  else
    (r = (0, 0) /\ a' = a_unmap_inactive a R p) \/ (r = (E_INVALID, 0) /\ am a R (ixs p) = None /\ a' = a_touch_inactive a).

Lemma amap_act_cases a p f fl r a' :
  AMapStep a (aact a) p f fl r a' ->
  (aguard a f fl = true /\ r = (E_ZERO_RW, 0) /\ a' = a) \/
  (aguard a f fl = false /\ ((r = (0, 0) /\ a' = a_map a (aact a) p f fl (frame_addr p)) \/ (r = (E_ALLOC, 0) /\ a' = a))).
Proof.
  unfold AMapStep. rewrite N.eqb_refl. destruct (aguard a f fl); intros H; [left | right]; (split; [reflexivity | exact H]).
Qed.

Lemma amap_inact_cases a T p f fl r a' :
  T <> aact a -> AMapStep a T p f fl r a' ->
  (r = (0, 0) /\ aguard a f fl = false /\ a' = a_map_inactive a T p f fl) \/
  (r = (E_ALLOC, 0) /\ aguard a f fl = false /\ a' = a_touch_inactive a) \/
  (r = (E_ZERO_RW, 0) /\ aguard a f fl = true /\ a' = a_touch_inactive a).
Proof. intros Hne. unfold AMapStep. destruct (N.eqb_spec T (aact a)); [congruence|]. intros H; exact H. Qed.

(** the abstract machine: what request [o], answered with [r] = (error, value), does to [a].  A failed request
    changes no translation; a refused or failed request on an inactive table still flushes the patched slot twice. *)
Definition AStep (o : qop) (r : N * N) (a a' : ast) : Prop :=
  match o with
  | QMap p f fl => AMapStep a (aact a) p f fl r a'
  | QUnmap p => AUnmapStep a (aact a) p r a'
  | QTranslate va => r = atranslate (am a (aact a)) va /\ a' = a
  | QMapTemp f =>
      (r = (E_ZERO_RW, 0) /\ aguard a f P_RW = true /\ a' = a) \/
      (r = (0, temp_page) /\ aguard a f P_RW = false /\ a' = a_map a (aact a) temp_page f P_RW vmm_tempMappingAddr) \/
      (r = (E_ALLOC, 0) /\ aguard a f P_RW = false /\ a' = a)
  | QMapRegion f sz fl =>
      match reserve_spec (alast a) sz with
      | None => r = (E_NOSPACE, 0) /\ a' = a
      | Some (a0, _) =>
          exists j, a' = a_range (set_alast a a0) (aact a) (a0 / 4096) f fl j /\
                    ((r = (0, a0 / 4096) /\ j = N.to_nat (ceil_pages sz)) \/ (r = (E_ALLOC, 0) /\ (j < N.to_nat (ceil_pages sz))%nat))
      end
  | QIdMapRegion f sz fl =>
      exists j, a' = a_range a (aact a) f f fl j /\
                ((r = (0, f) /\ j = N.to_nat (ceil_pages sz)) \/ (r = (E_ALLOC, 0) /\ (j < N.to_nat (ceil_pages sz))%nat))
  | QPdtInit k F => (r = (0, 0) /\ a' = a_init a k F) \/ (r = (E_ALLOC, 0) /\ a' = set_aslot a k None)
  | QPdtMap k p f fl => match aslot a k with Some T => AMapStep a T p f fl r a' | None => False end
  | QPdtUnmap k p => match aslot a k with Some T => AUnmapStep a T p r a' | None => False end
  | QActivate k => match aslot a k with Some T => r = (0, 0) /\ a' = set_aact a T | None => False end
  | QArm => AArm a r a'
  end.

(** unfolding equations (rewriting with them keeps proof terms about concrete states small) *)
Lemma astep_map p f fl r a a' : AStep (QMap p f fl) r a a' = AMapStep a (aact a) p f fl r a'.
Proof. reflexivity. Qed.
Lemma astep_unmap p r a a' : AStep (QUnmap p) r a a' = AUnmapStep a (aact a) p r a'.
Proof. reflexivity. Qed.
Lemma astep_translate va r a a' : AStep (QTranslate va) r a a' = (r = atranslate (am a (aact a)) va /\ a' = a).
Proof. reflexivity. Qed.
Lemma astep_init k F r a a' : AStep (QPdtInit k F) r a a' = ((r = (0, 0) /\ a' = a_init a k F) \/ (r = (E_ALLOC, 0) /\ a' = set_aslot a k None)).
Proof. reflexivity. Qed.
Lemma astep_pdt_map k T p f fl r a a' : aslot a k = Some T -> AStep (QPdtMap k p f fl) r a a' = AMapStep a T p f fl r a'.
Proof. intros E. cbn [AStep]. rewrite E. reflexivity. Qed.
Lemma astep_pdt_unmap k T p r a a' : aslot a k = Some T -> AStep (QPdtUnmap k p) r a a' = AUnmapStep a T p r a'.
Proof. intros E. cbn [AStep]. rewrite E. reflexivity. Qed.
Lemma astep_activate k T r a a' : aslot a k = Some T -> AStep (QActivate k) r a a' = (r = (0, 0) /\ a' = set_aact a T).
Proof. intros E. cbn [AStep]. rewrite E. reflexivity. Qed.
Lemma astep_arm r a a' : AStep QArm r a a' = AArm a r a'.
Proof. reflexivity. Qed.

Definition cstep_ok (o : qop) (s s' : st) : Prop :=
  match o with
  | QPdtMap k _ _ _ | QPdtUnmap k _ =>
      pdts s k <> N.shiftr (cr3 s) 12 -> forall i, ent s' (N.shiftr (cr3 s) 12) i = ent s (N.shiftr (cr3 s) 12) i
  | _ => True
  end.

(** the concrete state [s] (with ghost ownership [g]) implements the abstract state [a] *)
Record Rel (s : st) (a : ast) (g : gmap) : Prop := {
  r_g : GInv s (aroots a) g;
  r_act : N.shiftr (cr3 s) 12 = aact a;
  r_tr : forall R, In R (aroots a) -> forall q, hw_idx q 0 <> 511 -> translation s R q = am a R (ixs q);
  r_tlb : flog s = atlb a;
  r_last : last s = alast a;
  r_wfl : WFstart (last s);
  r_slot : forall k R, aslot a k = Some R -> pdts s k = R /\ In R (aroots a);
  r_free : forall F, In F (afree a) -> backed s F = true /\ g F = None /\ ~ In F (orc s);
  r_prot : prot s = aprot a;
  r_zf : zf s = azf a;
  r_pool : forall F, In F (orc s) -> F <> 0 -> In F (apool a)
}.

(** the common shape of every operation that works on the tree of one root [T] *)
Lemma rel_update s s' a g T own' n mT' tlb' :
  Rel s a g -> In T (aroots a) -> WF s' T own' ->
  lo s' = lo s -> cnt s' = cnt s -> cr3 s' = cr3 s -> orc s' = skipn n (orc s) ->
  (forall k, pdts s' k = pdts s k) -> prot s' = prot s -> zf s' = zf s -> last s' = last s ->
  (forall f, own' f = proj g T f \/ (proj g T f = None /\ In f (firstn n (orc s)) /\ f <> 0)) ->
  (forall f i, own' f = None -> ent s' f i = ent s f i) ->
  (forall q, hw_idx q 0 <> 511 -> translation s' T q = mT' (ixs q)) -> flog s' = tlb' ->
  exists g', Rel s' (set_tlb (set_am a T mT') tlb') g' /\
             (forall F i, In F (afree a) -> ent s' F i = ent s F i).
Proof.
  intros [G Hact Htr Htlb Hlast Hwfl Hslot Hfree Hprot Hzf Hpool] HT W' Hlo Hcnt Hcr Horc Hpd Hpr Hz Hl' Hown Hfr HtrT Hfl.
  destruct (ginv_update s s' (aroots a) g T own' n [] G HT W' Hlo Hcnt Hcr Horc Hown) as (G' & PT & PR & Pn).
  { intros f i Ho _. apply Hfr. exact Ho. }
  { intros f []. }
  set (g' := fun f => match own' f with Some p => Some (T, p) | None => g f end) in *.
  assert (HownF: forall F, In F (afree a) -> own' F = None).
  { intros F HF. destruct (Hfree F HF) as (_ & HgF & HnF).
    destruct (Hown F) as [E | (_ & Hin & _)]; [rewrite E; apply proj_none; exact HgF|].
    exfalso. apply HnF. eapply in_firstn; exact Hin. }
  exists g'. split.
  - split; cbn [aroots am aact atlb aslot alast afree aprot azf apool set_tlb set_am].
    + exact G'.
    + rewrite Hcr. exact Hact.
    + intros R HR q Hq. destruct (N.eqb_spec R T) as [->|Hne]; [apply HtrT; exact Hq|].
      rewrite <- (Htr R HR q Hq). unfold translation.
      rewrite (aspace_ent_eq s s' R (proj g R) q (gi_wf _ _ _ G R HR) Hlo Hcnt); [reflexivity | | exact Hq].
      intros f p i Hp. apply Hfr. apply proj_some in Hp.
      destruct (Hown f) as [E | (_ & Hin & Hz0)].
      * rewrite E. apply (proj_other g T R f p Hp). congruence.
      * destruct (gi_fresh _ _ _ G f (in_firstn f n _ Hin) Hz0) as [_ B]. congruence.
    + exact Hfl.
    + rewrite Hl'. exact Hlast.
    + rewrite Hl'. exact Hwfl.
    + intros k R Hk. rewrite Hpd. exact (Hslot k R Hk).
    + intros F HF. destruct (Hfree F HF) as (B1 & B2 & B3). split; [unfold backed in *; rewrite Hlo, Hcnt; exact B1|].
      split; [apply Pn; [exact B2 | apply HownF; exact HF]|].
      rewrite Horc. intros Hin. apply B3. eapply in_skipn. exact Hin.
    + rewrite Hpr. exact Hprot.
    + rewrite Hz. exact Hzf.
    + intros F HF. rewrite Horc in HF. apply Hpool. eapply in_skipn. exact HF.
  - intros F i HF. apply Hfr. apply HownF. exact HF.
Qed.

Lemma aeq_refl a : aeq a a.
Proof. repeat split. Qed.

Lemma Rel_aeq s a1 a2 g : aeq a1 a2 -> Rel s a1 g -> Rel s a2 g.
Proof.
  intros (E1 & E2 & E3 & E4 & E5 & E6 & E7 & E8 & E9 & E10) [G Hact Htr Htlb Hlast Hwfl Hslot Hfree Hprot Hzf Hpool].
  split; rewrite <- ?E2, <- ?E3, <- ?E5, <- ?E6, <- ?E7, <- ?E8, <- ?E9, <- ?E10; try assumption.
  - intros R HR q Hq. rewrite <- E1. apply Htr; assumption.
  - intros k R Hk. rewrite <- E4 in Hk. exact (Hslot k R Hk).
Qed.

Lemma aeq_same_am a T tl : aeq (set_tlb (set_am a T (am a T)) tl) (set_tlb a tl).
Proof. repeat split. intros R k. cbn. destruct (N.eqb_spec R T) as [->|]; reflexivity. Qed.

Lemma aguard_zero s a g f fl : Rel s a g -> zero_guard s f fl = aguard a f fl.
Proof. intros R. unfold zero_guard, aguard, wants_rw. rewrite (r_prot _ _ _ R), (r_zf _ _ _ R). reflexivity. Qed.

(** * Map on the active space *)
Lemma r_map s a g p f fl :
  Rel s a g -> page_ok p f fl ->
  exists s' err a' g',
    map_page p f fl s = Ok (s', err) /\ AMapStep a (aact a) p f fl (err, 0) a' /\ Rel s' a' g' /\
    (forall F i, In F (afree a) -> ent s' F i = ent s F i).
Proof.
  intros HR (H511 & Hf & Hfl). unfold AMapStep. rewrite N.eqb_refl.
  pose proof (aguard_zero s a g f fl HR) as Hzg.
  destruct (aguard a f fl) eqn:Hg.
  { exists s, E_ZERO_RW, a, g. rewrite (map_page_guarded p f fl s Hzg).
    split; [reflexivity|]. split; [split; reflexivity|]. split; [exact HR | reflexivity]. }
  pose proof (r_g _ _ _ HR) as G. pose proof (r_act _ _ _ HR) as Hact.
  pose proof (GInv_Inv s _ g G) as HI. rewrite Hact in HI.
  assert (HA: In (aact a) (aroots a)) by (rewrite <- Hact; exact (gi_act _ _ _ G)).
  destruct (map_ok s (aact a) (aact a) (proj g (aact a)) p f fl HI H511 Hzg) as
      (s' & err & own' & Hrun & HI' & Henv & Herr & Hok & Hfail & Hfr & _ & (n & Hn & Hown) & _).
  destruct Henv as (E1 & E2 & E3 & E4 & E5 & Ez & Ep & Epd & Ein).
  exists s', err.
  destruct (N.eq_dec err 0) as [E0|E0].
  - destruct (Hok E0) as (Ha & Hoth & Hfl').
    destruct (rel_update s s' a g (aact a) own' n (aupd (am a (aact a)) (ixs p) (leafv f fl)) (frame_addr p :: atlb a)
                HR HA (inv_wf _ _ _ _ HI') E1 E2 E3 Hn (fun k0 => f_equal (fun h => h k0) Epd) Ep Ez E5) as (g' & HR' & Hdata); try assumption.
    + apply (tr_after_map s s' (aact a) p f fl); try assumption. exact (r_tr _ _ _ HR _ HA).
    + rewrite Hfl', (r_tlb _ _ _ HR). reflexivity.
    + exists (a_map a (aact a) p f fl (frame_addr p)), g'. rewrite E0 in *.
      split; [exact Hrun|]. split; [left; split; reflexivity|]. split; [exact HR' | exact Hdata].
  - destruct (Hfail E0) as (Hoth & Hfl'). destruct Herr as [E|E]; [congruence|].
    destruct (rel_update s s' a g (aact a) own' n (am a (aact a)) (atlb a)
                HR HA (inv_wf _ _ _ _ HI') E1 E2 E3 Hn (fun k0 => f_equal (fun h => h k0) Epd) Ep Ez E5) as (g' & HR' & Hdata); try assumption.
    + intros q Hq. rewrite (Hoth q Hq). exact (r_tr _ _ _ HR _ HA q Hq).
    + rewrite Hfl'. exact (r_tlb _ _ _ HR).
    + exists a, g'. rewrite E in *. split; [exact Hrun|]. split; [right; split; reflexivity|].
      split; [exact (Rel_aeq _ _ a _ (aeq_same_am a _ _) HR') | exact Hdata].
Qed.

(** * Unmap on the active space *)
Lemma r_unmap s a g p :
  Rel s a g -> hw_idx p 0 <> 511 ->
  exists s' err a' g',
    unmap_page p s = Ok (s', err) /\ AUnmapStep a (aact a) p (err, 0) a' /\ Rel s' a' g' /\
    (forall F i, In F (afree a) -> ent s' F i = ent s F i).
Proof.
  intros HR H511. unfold AUnmapStep. rewrite N.eqb_refl.
  pose proof (r_g _ _ _ HR) as G. pose proof (r_act _ _ _ HR) as Hact.
  pose proof (GInv_Inv s _ g G) as HI. rewrite Hact in HI.
  assert (HA: In (aact a) (aroots a)) by (rewrite <- Hact; exact (gi_act _ _ _ G)).
  destruct (unmap_ok s (aact a) (aact a) (proj g (aact a)) p HI H511) as (s' & err & Hrun & Herr & HI' & Henv & Horc & Hinv & Hok).
  exists s', err.
  destruct Herr as [E0|E0].
  - destruct (Hok E0) as (e & _ & _ & Htp & Hoth & Hfl' & Hfr & _).
    destruct Henv as (E1 & E2 & E3 & E4 & E5 & Ez & Ep & Epd & Ein).
    destruct (rel_update s s' a g (aact a) (proj g (aact a)) 0%nat (aupd (am a (aact a)) (ixs p) None) (frame_addr p :: atlb a)
                HR HA (inv_wf _ _ _ _ HI') E1 E2 E3 Horc (fun k0 => f_equal (fun h => h k0) Epd) Ep Ez E5) as (g' & HR' & Hdata); try assumption.
    + intros f. left. reflexivity.
    + apply (tr_after_unmap s s' (aact a) p); try assumption. exact (r_tr _ _ _ HR _ HA).
    + rewrite Hfl', (r_tlb _ _ _ HR). reflexivity.
    + exists (a_unmap a (aact a) p (frame_addr p)), g'. rewrite E0 in *.
      split; [exact Hrun|]. split; [left; split; reflexivity|]. split; [exact HR' | exact Hdata].
  - destruct (Hinv E0) as [Es Hnone]. rewrite Es, E0 in *. exists a, g. split; [exact Hrun|]. split; [|split; [exact HR | reflexivity]].
    right. split; [reflexivity|]. split; [reflexivity|].
    rewrite <- (r_tr _ _ _ HR _ HA p H511). unfold translation. rewrite Hnone. reflexivity.
Qed.

(** * Translate *)
Lemma r_translate s a g va :
  Rel s a g -> hw_idx (N.shiftr va 12) 0 <> 511 ->
  translate va s = Ok (atranslate (am a (aact a)) va).
Proof.
  intros HR H511.
  pose proof (r_g _ _ _ HR) as G. pose proof (r_act _ _ _ HR) as Hact.
  pose proof (GInv_Inv s _ g G) as HI. rewrite Hact in HI.
  assert (HA: In (aact a) (aroots a)) by (rewrite <- Hact; exact (gi_act _ _ _ G)).
  rewrite (translate_ok s _ _ _ va HI H511). unfold atranslate. rewrite (r_tr _ _ _ HR _ HA _ H511). reflexivity.
Qed.

(** what [with_pdt_inactive] gives, in global terms *)
Lemma with_pdt_frames s A T e (own' : ownmap) s1 s2 s3 :
  s1 = flush (wr_st s A 511 (set_frame e T)) (lea_of A) ->
  s3 = flush (wr_st s2 A 511 e) (lea_of A) -> e = ent s A 511 ->
  (forall f i, own' f = None -> ent s2 f i = ent s1 f i) -> own' A = None ->
  forall f i, own' f = None -> ent s3 f i = ent s f i.
Proof.
  intros E1 E3 Ee Hfr HoA f i Hf. rewrite E3, ent_flush, ent_wr.
  destruct (N.eqb_spec f A) as [->|HfA]; cbn [andb].
  - destruct (N.eqb_spec i 511) as [->|Hi]; [exact Ee|].
    rewrite Hfr by exact Hf. rewrite E1, ent_flush, ent_wr, N.eqb_refl. cbn [andb].
    destruct (N.eqb_spec i 511); [congruence | reflexivity].
  - rewrite Hfr by exact Hf. rewrite E1, ent_flush, ent_wr.
    destruct (N.eqb_spec f A); [congruence | reflexivity].
Qed.

(** an operation [op] on the table [T], which is not active, run through [with_pdt]: if [op], started where [T] has
    its abstract map, logs [tl] and leaves [T] with the map [m'], then so does the whole, with the two flushes of the
    patched slot around it; no other address space and no data frame changes *)
Lemma r_with_pdt_inactive s a g k T op (P : N -> amap -> list N -> Prop) :
  Rel s a g -> aslot a k = Some T -> T <> aact a ->
  (forall s1, Inv s1 (aact a) T (proj g T) -> same_env s s1 -> orc s1 = orc s ->
     exists s2 err own', TOp op (aact a) T (proj g T) s1 s2 err own' /\
       ((forall q, hw_idx q 0 <> 511 -> translation s1 T q = am a T (ixs q)) ->
        exists m' tl, P err m' tl /\ flog s2 = tl ++ flog s1 /\
                      forall q, hw_idx q 0 <> 511 -> translation s2 T q = m' (ixs q))) ->
  exists s' err g' m' tl,
    with_pdt k op s = Ok (s', err) /\ P err m' tl /\
    Rel s' (set_tlb (set_am a T m') (lea_of (aact a) :: tl ++ lea_of (aact a) :: atlb a)) g' /\
    (forall F i, In F (afree a) -> ent s' F i = ent s F i) /\
    (forall i, ent s' (aact a) i = ent s (aact a) i).
Proof.
  intros HR Hk HTA Hop.
  pose proof (r_g _ _ _ HR) as G. pose proof (r_act _ _ _ HR) as Hact.
  destruct (r_slot _ _ _ HR k T Hk) as [Hpd HT].
  pose proof (GInv_Inv2 s _ g T G HT ltac:(rewrite Hact; exact HTA)) as HI2. rewrite Hact in HI2.
  set (A := aact a) in *.
  set (Q := fun (s1 s2 : st) (err : N) (own' : ownmap) =>
              (forall q, hw_idx q 0 <> 511 -> translation s1 T q = am a T (ixs q)) ->
              exists m' tl, P err m' tl /\ flog s2 = tl ++ flog s1 /\
                            forall q, hw_idx q 0 <> 511 -> translation s2 T q = m' (ixs q)).
  destruct (with_pdt_inactive s A T (proj g A) (proj g T) k op Q HI2 Hpd Hop) as
      (s1 & s2 & s3 & err & own' & Hrun & HQ & Es1 & HTop & Es3 & _ & _ & _ & HaspT & Hasp1 & Hfl3 & Hfl1 & HI3).
  assert (Hm1: forall q, hw_idx q 0 <> 511 -> translation s1 T q = am a T (ixs q)).
  { intros q Hq. rewrite (translation_of_aspace s s1 T T q q (Hasp1 q Hq)). exact (r_tr _ _ _ HR T HT q Hq). }
  destruct (HQ Hm1) as (m' & tl & HP & Hfl2 & Htr2).
  destruct (with_pdt_env s A T _ _ _ s1 s2 s3 err own' Es1 HTop Es3) as (Env3 & n & Eo3 & Hown).
  destruct HTop as (_ & _ & _ & Hfr2 & _).
  assert (Hown'A: own' A = None).
  { destruct (i2_disj _ _ _ _ _ HI3 A) as []; [|reflexivity]. rewrite (wf_root _ _ _ (i2_wfA _ _ _ _ _ HI3)). discriminate. }
  pose proof (with_pdt_frames s A T _ own' s1 s2 s3 Es1 Es3 eq_refl Hfr2 Hown'A) as Hfr3.
  destruct Env3 as (E1 & E2 & E3 & E4 & E5 & Ez & Ep & Epd & Ein).
  destruct (rel_update s s3 a g T own' n m' (lea_of A :: tl ++ lea_of A :: atlb a)
              HR HT (i2_wfT _ _ _ _ _ HI3) E1 E2 E3 Eo3 (fun k0 => f_equal (fun h => h k0) Epd) Ep Ez E5) as (g' & HR' & Hdata); try assumption.
  - intros q Hq. rewrite (translation_of_aspace s2 s3 T T q q (HaspT q Hq)). exact (Htr2 q Hq).
  - rewrite Hfl3, Hfl2, Hfl1, (r_tlb _ _ _ HR). reflexivity.
  - exists s3, err, g', m', tl. split; [exact Hrun|]. split; [exact HP|]. split; [exact HR'|]. split; [exact Hdata|].
    intros i. apply Hfr3. exact Hown'A.
Qed.

Lemma r_pdt_map s a g k T p f fl :
  Rel s a g -> aslot a k = Some T -> page_ok p f fl ->
  exists s' err a' g',
    pdt_map k p f fl s = Ok (s', err) /\ AMapStep a T p f fl (err, 0) a' /\ Rel s' a' g' /\
    (forall F i, In F (afree a) -> ent s' F i = ent s F i) /\
    (T <> aact a -> forall i, ent s' (aact a) i = ent s (aact a) i).
Proof.
  intros HR Hk Hok. destruct (r_slot _ _ _ HR k T Hk) as [Hpd _]. unfold pdt_map.
  destruct (N.eq_dec T (aact a)) as [->|HTA].
  { rewrite with_pdt_active by (rewrite Hpd; exact (r_act _ _ _ HR)).
    destruct (r_map s a g p f fl HR Hok) as (s' & err & a' & g' & Hrun & HA & HR' & Hdata).
    exists s', err, a', g'. split; [exact Hrun|]. split; [exact HA|]. split; [exact HR'|]. split; [exact Hdata | congruence]. }
  destruct Hok as (H511 & Hf & Hfl). set (m := am a T).
  destruct (r_with_pdt_inactive s a g k T (map_page p f fl)
              (fun err m' tl => (err = 0 /\ aguard a f fl = false /\ m' = aupd m (ixs p) (leafv f fl) /\ tl = [frame_addr p]) \/
                                ((err = E_ALLOC /\ aguard a f fl = false \/ err = E_ZERO_RW /\ aguard a f fl = true) /\ m' = m /\ tl = []))
              HR Hk HTA) as (s' & err & g' & m' & tl & Hrun & HP & HR' & Hdata & Hroot).
  { intros s1 HI1 Henv Horc.
    assert (Ezg: zero_guard s1 f fl = aguard a f fl).
    { rewrite (same_env_guard s s1 f fl Henv). exact (aguard_zero s a g f fl HR). }
    destruct (aguard a f fl) eqn:Hg.
    - exists s1, E_ZERO_RW, (proj g T). split.
      + split; [exact (map_page_guarded p f fl s1 Ezg)|]. split; [exact HI1|]. split; [apply same_env_refl|]. split; [reflexivity|].
        exists 0%nat. split; [reflexivity | intros; left; reflexivity].
      + intros Hm. exists m, []. split; [right; split; [right; split; reflexivity | split; reflexivity]|]. split; [reflexivity | exact Hm].
    - destruct (map_ok s1 (aact a) T (proj g T) p f fl HI1 H511 Ezg) as (s2 & err & own' & Hr & HI & He & Herr & Hok & Hfail & Hfr & _ & Hn & _).
      exists s2, err, own'. split; [split; [exact Hr|]; split; [exact HI|]; split; [exact He|]; split; [exact Hfr | exact Hn]|].
      intros Hm. destruct (N.eq_dec err 0) as [E0|E0].
      + destruct (Hok E0) as (Ha & Hoth & Hfl'). exists (aupd m (ixs p) (leafv f fl)), [frame_addr p].
        split; [left; split; [exact E0 | repeat split]|]. split; [exact Hfl'|].
        exact (tr_after_map s1 s2 T p f fl m Ha Hoth Hf Hfl Hm).
      + destruct (Hfail E0) as (Hoth & Hfl'). destruct Herr as [E|E]; [congruence|]. exists m, [].
        split; [right; split; [left; split; [exact E | reflexivity] | split; reflexivity]|]. split; [exact Hfl'|].
        intros q Hq. rewrite (Hoth q Hq). exact (Hm q Hq). }
  exists s', err. unfold AMapStep. destruct (N.eqb_spec T (aact a)) as [|_]; [congruence|].
  destruct HP as [(-> & Hg & -> & ->) | (Hc & -> & ->)].
  - exists (a_map_inactive a T p f fl), g'. split; [exact Hrun|]. split; [left; split; [reflexivity|]; split; [exact Hg | reflexivity]|].
    split; [exact HR'|]. split; [exact Hdata | intros _; exact Hroot].
  - exists (a_touch_inactive a), g'. split; [exact Hrun|]. split.
    + right. destruct Hc as [(-> & Hg)|(-> & Hg)]; [left | right]; (split; [reflexivity|]; split; [exact Hg | reflexivity]).
    + split; [exact (Rel_aeq _ _ (a_touch_inactive a) _ (aeq_same_am a T _) HR')|]. split; [exact Hdata | intros _; exact Hroot].
Qed.

Lemma r_pdt_unmap s a g k T p :
  Rel s a g -> aslot a k = Some T -> hw_idx p 0 <> 511 ->
  exists s' err a' g',
    pdt_unmap k p s = Ok (s', err) /\ AUnmapStep a T p (err, 0) a' /\ Rel s' a' g' /\
    (forall F i, In F (afree a) -> ent s' F i = ent s F i) /\
    (T <> aact a -> forall i, ent s' (aact a) i = ent s (aact a) i).
Proof.
  intros HR Hk H511. destruct (r_slot _ _ _ HR k T Hk) as [Hpd _]. unfold pdt_unmap.
  destruct (N.eq_dec T (aact a)) as [->|HTA].
  { rewrite with_pdt_active by (rewrite Hpd; exact (r_act _ _ _ HR)).
    destruct (r_unmap s a g p HR H511) as (s' & err & a' & g' & Hrun & HA & HR' & Hdata).
    exists s', err, a', g'. split; [exact Hrun|]. split; [exact HA|]. split; [exact HR'|]. split; [exact Hdata | congruence]. }
  set (m := am a T).
  destruct (r_with_pdt_inactive s a g k T (unmap_page p)
              (fun err m' tl => (err = 0 /\ m' = aupd m (ixs p) None /\ tl = [frame_addr p]) \/
                                (err = E_INVALID /\ m (ixs p) = None /\ m' = m /\ tl = []))
              HR Hk HTA) as (s' & err & g' & m' & tl & Hrun & HP & HR' & Hdata & Hroot).
  { intros s1 HI1 Henv Horc.
    destruct (unmap_ok s1 (aact a) T (proj g T) p HI1 H511) as (s2 & err & Hr & Herr & HI & He & Ho & Hinv & Hok).
    exists s2, err, (proj g T). split.
    - split; [exact Hr|]. split; [exact HI|]. split; [exact He|]. split.
      + intros f i Hn. destruct Herr as [E0|E0].
        * destruct (Hok E0) as (e & _ & _ & _ & _ & _ & Hfr & _). apply Hfr. exact Hn.
        * destruct (Hinv E0) as [Es _]. rewrite Es. reflexivity.
      + exists 0%nat. split; [rewrite Ho; reflexivity|]. intros f. left. reflexivity.
    - intros Hm. destruct Herr as [E0|E0].
      + destruct (Hok E0) as (e & _ & _ & Htp & Hoth & Hfl' & _). exists (aupd m (ixs p) None), [frame_addr p].
        split; [left; repeat split; exact E0|]. split; [exact Hfl'|]. exact (tr_after_unmap s1 s2 T p m Htp Hoth Hm).
      + destruct (Hinv E0) as [Es Hn]. rewrite Es. exists m, []. split; [|split; [reflexivity | exact Hm]].
        right. split; [exact E0|]. split; [|split; reflexivity].
        unfold m. rewrite <- (Hm p H511). unfold translation. rewrite Hn. reflexivity. }
  exists s', err. unfold AUnmapStep. destruct (N.eqb_spec T (aact a)) as [|_]; [congruence|].
  destruct HP as [(-> & -> & ->) | (-> & Hn & -> & ->)].
  - exists (a_unmap_inactive a T p), g'. split; [exact Hrun|]. split; [left; split; reflexivity|].
    split; [exact HR'|]. split; [exact Hdata | intros _; exact Hroot].
  - exists (a_touch_inactive a), g'. split; [exact Hrun|]. split; [right; split; [reflexivity|]; split; [exact Hn | reflexivity]|].
    split; [exact (Rel_aeq _ _ (a_touch_inactive a) _ (aeq_same_am a T _) HR')|]. split; [exact Hdata | intros _; exact Hroot].
Qed.

(** * Activate *)
Lemma r_activate s a g k T :
  Rel s a g -> aslot a k = Some T ->
  Rel (pdt_activate k s) (set_aact a T) g /\ (forall f i, ent (pdt_activate k s) f i = ent s f i).
Proof.
  intros HR Hk. destruct (r_slot _ _ _ HR k T Hk) as [Hpd HT].
  pose proof (r_g _ _ _ HR) as G.
  pose proof (gi_wf _ _ _ G T HT) as WT.
  destruct (wf_owned _ _ _ WT T [] (wf_root _ _ _ WT)) as (HbT & _).
  assert (HT40: T < 2 ^ 40) by (eapply backed_lt40; [exact (wf_arena _ _ _ WT) | exact HbT]).
  assert (Ecr: N.shiftr (cr3 (pdt_activate k s)) 12 = T).
  { unfold pdt_activate. rewrite Hpd. exact (frame_addr_shr T HT40). }
  split; [|reflexivity].
  destruct HR as [G0 Hact Htr Htlb Hlast Hwfl Hslot Hfree Hprot Hzf Hpool].
  split; cbn [aroots am aact atlb aslot alast afree aprot azf apool set_aact]; try assumption.
  - apply (ginv_ent_eq s _ _ g G0); try reflexivity. rewrite Ecr. exact HT.
Qed.

(** * MapTemporary *)
Lemma P_RW_wants : wants_rw P_RW = true.
Proof. reflexivity. Qed.

Lemma r_map_temp s a g f :
  Rel s a g -> f < 2 ^ 40 ->
  exists s' r a' g',
    map_temporary f s = Ok (s', fst r, snd r) /\ AStep (QMapTemp f) r a a' /\ Rel s' a' g' /\
    (forall F i, In F (afree a) -> ent s' F i = ent s F i).
Proof.
  intros HR Hf. unfold map_temporary. cbn [AStep].
  assert (Eg: (prot s && (f =? zf s)) = aguard a f P_RW).
  { unfold aguard. rewrite (r_prot _ _ _ HR), (r_zf _ _ _ HR), P_RW_wants, andb_true_r. reflexivity. }
  rewrite Eg. destruct (aguard a f P_RW) eqn:Hg.
  - exists s, (E_ZERO_RW, 0), a, g. split; [reflexivity|]. split; [left; repeat split|]. split; [exact HR | reflexivity].
  - destruct (r_map s a g temp_page f P_RW HR (conj temp_idx0 (conj Hf P_RW_mask))) as (s' & err & a' & g' & Hrun & HA & HR' & Hdata).
    rewrite Hrun. destruct (amap_act_cases _ _ _ _ _ _ HA) as [(Hg' & _) | (_ & [(E & ->) | (E & ->)])]; [congruence| |]; injection E as ->.
    + exists s', (0, temp_page), (a_map a (aact a) temp_page f P_RW vmm_tempMappingAddr), g'.
      split; [reflexivity|]. split; [right; left; repeat split|]. split; [exact HR' | exact Hdata].
    + exists s', (E_ALLOC, 0), a, g'. split; [reflexivity|]. split; [right; right; repeat split|]. split; [exact HR' | exact Hdata].
Qed.

Lemma a_range_act a R p0 f0 fl j : aact (a_range a R p0 f0 fl j) = aact a /\ afree (a_range a R p0 f0 fl j) = afree a.
Proof. revert a p0 f0. induction j as [|j IH]; intros a p0 f0; [split; reflexivity|]. cbn [a_range]. rewrite !(proj1 (IH _ _ _)), !(proj2 (IH _ _ _)). split; reflexivity. Qed.

Lemma r_loop fl : forall n s a g p0 f0,
  Rel s a g -> N.land fl vmm_ptePhysPageMask = 0 ->
  (forall j, (j < n)%nat -> hw_idx (p0 + N.of_nat j) 0 <> 511 /\ aguard a (f0 + N.of_nat j) fl = false) ->
  p0 + N.of_nat n <= 2 ^ 52 -> f0 + N.of_nat n <= 2 ^ 40 ->
  exists s' g' j,
    ((j = n /\ iter_nat (map_step (fun p f => map_page p f fl)) n (s, p0, f0) = inl (s', p0 + N.of_nat n, f0 + N.of_nat n)) \/
     ((j < n)%nat /\ iter_nat (map_step (fun p f => map_page p f fl)) n (s, p0, f0) = inr (Some (s', E_ALLOC)))) /\
    Rel s' (a_range a (aact a) p0 f0 fl j) g' /\
    (forall F i, In F (afree a) -> ent s' F i = ent s F i).
Proof.
  induction n as [|n IH]; intros s a g p0 f0 HR Hfl Hdom Hp Hf.
  - exists s, g, 0%nat. cbn [iter_nat a_range N.of_nat]. rewrite !N.add_0_r. split; [left; split; reflexivity|]. split; [exact HR | reflexivity].
  - cbn [iter_nat map_step].
    destruct (Hdom 0%nat ltac:(lia)) as [H0 Hg0]. rewrite N.add_0_r in H0, Hg0.
    assert (Hf0: f0 < 2 ^ 40) by lia.
    destruct (r_map s a g p0 f0 fl HR (conj H0 (conj Hf0 Hfl))) as (s1 & err & a1 & g1 & Hrun & HA & HR1 & Hdata).
    rewrite Hrun. destruct (amap_act_cases _ _ _ _ _ _ HA) as [(Hg' & _) | (_ & [(E & ->) | (E & ->)])]; [congruence| |]; injection E as ->.
    + cbn [N.eqb].
      assert (Ew1: w64 (p0 + 1) = p0 + 1) by (apply w64_incr; lia).
      assert (Ew2: w64 (f0 + 1) = f0 + 1) by (apply w64_incr; change (2 ^ 40) with 1099511627776 in Hf; change (2 ^ 52) with 4503599627370496; lia).
      rewrite Ew1, Ew2.
      destruct (IH s1 _ g1 (p0 + 1) (f0 + 1) HR1 Hfl) as (s' & g' & j & Hres & HR' & Hdata').
      * intros j Hj. replace (p0 + 1 + N.of_nat j) with (p0 + N.of_nat (S j)) by lia.
        replace (f0 + 1 + N.of_nat j) with (f0 + N.of_nat (S j)) by lia. exact (Hdom (S j) ltac:(lia)).
      * lia.
      * lia.
      * exists s', g', (S j). split.
        -- destruct Hres as [(Ej & Hr) | (Ej & Hr)]; [left | right]; rewrite Hr; (split; [lia|]).
           ++ replace (p0 + 1 + N.of_nat n) with (p0 + N.of_nat (S n)) by lia.
              replace (f0 + 1 + N.of_nat n) with (f0 + N.of_nat (S n)) by lia. reflexivity.
           ++ reflexivity.
        -- split; [exact HR'|]. intros F i HF. rewrite (Hdata' F i HF). apply Hdata. exact HF.
    + exists s1, g1, 0%nat. split; [right; split; [lia | reflexivity]|]. split; [exact HR1 | exact Hdata].
Qed.

Lemma rel_set_last s a g l :
  Rel s a g -> WFstart l -> Rel (set_last s l) (set_alast a l) g.
Proof.
  intros [G Hact Htr Htlb Hlast Hwfl Hslot Hfree Hprot Hzf Hpool] Hw.
  split; cbn [aroots am aact atlb aslot alast afree aprot azf apool set_alast]; try assumption; try reflexivity.
  - apply (ginv_ent_eq s _ _ g G); try reflexivity. exact (gi_act _ _ _ G).
Qed.

Lemma r_map_region s a g frame size fl :
  Rel s a g -> qdom (QMapRegion frame size fl) a ->
  exists s' r a' g',
    Pt.map_region frame size fl s = Ok (s', fst r, snd r) /\ AStep (QMapRegion frame size fl) r a a' /\ Rel s' a' g' /\
    (forall F i, In F (afree a) -> ent s' F i = ent s F i).
Proof.
  intros HR (Hs & Hdom). pose proof (map_region_unfold frame size fl s Hs (r_wfl _ _ _ HR)) as Hrun.
  rewrite (r_last _ _ _ HR) in Hrun. cbn [AStep].
  destruct (reserve_spec (alast a) size) as [[a0 len]|].
  2:{ exists s, (E_NOSPACE, 0), a, g. split; [exact Hrun|]. split; [split; reflexivity|]. split; [exact HR | reflexivity]. }
  destruct Hrun as (Hrun & Hw0 & Hp52). destruct Hdom as (Hfl & Hf & Hdom). rewrite Hrun.
  set (n := N.to_nat (ceil_pages size)) in *.
  rewrite <- (N2Nat.id (ceil_pages size)) in Hp52. fold n in Hp52.
  destruct (r_loop fl n (set_last s a0) (set_alast a a0) g (a0 / 4096) frame (rel_set_last s a g a0 HR Hw0) Hfl Hdom Hp52 Hf)
    as (s' & g' & j & Hr & HR' & Hdata).
  exists s'. destruct Hr as [(Ej & Hr) | (Ej & Hr)]; rewrite Hr.
  - exists (0, a0 / 4096), (a_range (set_alast a a0) (aact a) (a0 / 4096) frame fl j), g'. split; [reflexivity|].
    split; [exists j; split; [reflexivity|]; left; split; [reflexivity | exact Ej]|]. split; [exact HR' | exact Hdata].
  - exists (E_ALLOC, 0), (a_range (set_alast a a0) (aact a) (a0 / 4096) frame fl j), g'. split; [reflexivity|].
    split; [exists j; split; [reflexivity|]; right; split; [reflexivity | exact Ej]|]. split; [exact HR' | exact Hdata].
Qed.

Lemma r_id_map_region s a g frame size fl :
  Rel s a g -> qdom (QIdMapRegion frame size fl) a ->
  exists s' r a' g',
    Pt.identity_map_region frame size fl s = Ok (s', fst r, snd r) /\ AStep (QIdMapRegion frame size fl) r a a' /\ Rel s' a' g' /\
    (forall F i, In F (afree a) -> ent s' F i = ent s F i).
Proof.
  intros HR (Hs & Hfl & Hf & Hdom). cbn [AStep]. set (n := N.to_nat (ceil_pages size)) in *.
  assert (Hcnt: N.of_nat n = ceil_pages size) by (unfold n; apply N2Nat.id).
  rewrite identity_map_region_unfold by (rewrite <- ?Hcnt; assumption). fold n.
  assert (Hp52: frame + N.of_nat n <= 2 ^ 52) by (change (2 ^ 40) with 1099511627776 in Hf; change (2 ^ 52) with 4503599627370496; lia).
  destruct (r_loop fl n s a g frame frame HR Hfl Hdom Hp52 Hf) as (s' & g' & j & Hr & HR' & Hdata).
  exists s'. destruct Hr as [(Ej & Hr) | (Ej & Hr)]; rewrite Hr.
  - exists (0, frame), (a_range a (aact a) frame frame fl j), g'. split; [reflexivity|].
    split; [exists j; split; [reflexivity|]; left; split; [reflexivity | exact Ej]|]. split; [exact HR' | exact Hdata].
  - exists (E_ALLOC, 0), (a_range a (aact a) frame frame fl j), g'. split; [reflexivity|].
    split; [exists j; split; [reflexivity|]; right; split; [reflexivity | exact Ej]|]. split; [exact HR' | exact Hdata].
Qed.

(** * PageDirectoryTable.Init of a fresh frame *)
Lemma rel_set_pdt s a g k F : Rel s a g -> Rel (set_pdt s k F) (set_aslot a k None) g.
Proof.
  intros [G Hact Htr Htlb Hlast Hwfl Hslot Hfree Hprot Hzf Hpool].
  split; cbn [aroots am aact atlb aslot alast afree aprot azf apool set_aslot]; try assumption.
  - apply (ginv_ent_eq s _ _ g G); try reflexivity. exact (gi_act _ _ _ G).
  - intros k' R. cbn [pdts set_pdt]. destruct (N.eqb_spec k' k); [discriminate|]. apply Hslot.
Qed.

Lemma r_pdt_init s a g k F :
  Rel s a g -> In F (afree a) -> aguard a F P_RW = false ->
  exists s' err a' g',
    pdt_init k F s = Ok (s', err) /\ AStep (QPdtInit k F) (err, 0) a a' /\ Rel s' a' g' /\
    (forall F' i, In F' (afree a) -> In F' (afree a') -> ent s' F' i = ent s F' i).
Proof.
  intros HR HF Hg.
  pose proof (r_g _ _ _ HR) as G. pose proof (r_act _ _ _ HR) as Hact.
  pose proof (GInv_Inv s _ g G) as HI. rewrite Hact in HI. set (A := aact a) in *.
  destruct (r_free _ _ _ HR F HF) as (HbF & HgF & HnF).
  assert (HoF: proj g A F = None) by (apply proj_none; exact HgF).
  assert (Hg0: (prot s && (F =? zf s)) = false).
  { unfold aguard in Hg. rewrite P_RW_wants, andb_true_r in Hg. rewrite (r_prot _ _ _ HR), (r_zf _ _ _ HR). exact Hg. }
  destruct (pdt_init_full s A (proj g A) k F HI Hg0 HbF HoF HnF) as
      (s' & err & own1 & (Hrun & Herr & Hsl & Hosl & Elo & Ecnt & Ecr & Ezf & Epr & Elast & Eslog & (n & Hn & Hown) & Hok & Hfail & _ & _) & Hfl0 & Hfl1).
  assert (HA: In A (aroots a)) by (rewrite <- Hact; exact (gi_act _ _ _ G)).
  exists s', err.
  destruct (N.eq_dec err 0) as [E0|E0].
  - destruct (Hok E0) as (HI2 & Hempty & HtrA & Htemp & Hfr).
    assert (Ho1F: own1 F = None).
    { destruct (own1 F) eqn:E; [|reflexivity]. exfalso.
      assert (H: own_root F F = None) by (apply (i2_disj _ _ _ _ _ HI2); rewrite E; discriminate).
      unfold own_root in H. rewrite N.eqb_refl in H. discriminate. }
    destruct (ginv_update s s' (aroots a) g A own1 n [F] G HA (i2_wfA _ _ _ _ _ HI2) Elo Ecnt Ecr Hn Hown) as (G1 & PT & PR & Pn).
    { intros f i Ho Hni. apply Hfr; [exact Ho|]. intros E. apply Hni. left. symmetry. exact E. }
    { intros f [<-|[]]. exact HgF. }
    set (g1 := fun f => match own1 f with Some p => Some (A, p) | None => g f end) in *.
    assert (Hg1F: g1 F = None) by (apply Pn; assumption).
    assert (HnF': ~ In F (orc s')) by (rewrite Hn; intros Hin; apply HnF; eapply in_skipn; exact Hin).
    destruct (ginv_add_root s' (aroots a) g1 F G1 Hg1F (i2_wfT _ _ _ _ _ HI2) HnF') as (G2 & PR2 & Pe2).
    set (g2 := fun f => if f =? F then Some (F, []) else g1 f) in *.
    assert (HFr: forall R, In R (aroots a) -> R <> F).
    { intros R HRr E. rewrite E in HRr. rewrite (root_owned s _ g F G HRr) in HgF. discriminate. }
    exists (a_init a k F), g2. split; [exact Hrun|]. split; [left; rewrite E0; split; reflexivity|]. split.
    + split; cbn [aroots am aact atlb aslot alast afree aprot azf apool a_init].
      * exact G2.
      * rewrite Ecr. exact Hact.
      * intros R [<-|HRr] q Hq.
        -- rewrite N.eqb_refl. unfold translation. rewrite (Hempty q Hq). reflexivity.
        -- destruct (N.eqb_spec R F) as [E|_]; [exfalso; exact (HFr R HRr E)|].
           change (aact a) with A.
           destruct (N.eqb_spec R A) as [->|HRA].
           ++ unfold aupd. destruct (list_eq_dec N.eq_dec (ixs q) (ixs temp_page)) as [Es|Hne].
              ** unfold translation, aspace in *. rewrite Es. exact Htemp.
              ** rewrite (HtrA q Hq Hne). exact (r_tr _ _ _ HR A HA q Hq).
           ++ rewrite <- (r_tr _ _ _ HR R HRr q Hq). unfold translation.
              rewrite (aspace_ent_eq s s' R (proj g R) q (gi_wf _ _ _ G R HRr) Elo Ecnt); [reflexivity | | exact Hq].
              intros f p i Hp. apply proj_some in Hp. apply Hfr.
              ** destruct (Hown f) as [E | (_ & Hin & Hz0)].
                 --- rewrite E. apply (proj_other g A R f p Hp). congruence.
                 --- destruct (gi_fresh _ _ _ G f (in_firstn f n _ Hin) Hz0) as [_ B]. congruence.
              ** intros E. rewrite E, HgF in Hp. discriminate.
      * rewrite (Hfl0 E0), (r_tlb _ _ _ HR). reflexivity.
      * rewrite Elast. exact (r_last _ _ _ HR).
      * rewrite Elast. exact (r_wfl _ _ _ HR).
      * intros k' R. destruct (N.eqb_spec k' k) as [->|Hk].
        -- intros E; injection E as <-. split; [exact Hsl | left; reflexivity].
        -- intros Hk'. rewrite (Hosl k' Hk). destruct (r_slot _ _ _ HR k' R Hk') as [P1 P2]. split; [exact P1 | right; exact P2].
      * intros F' HF'. apply in_remove in HF'. destruct HF' as [HF' HneF].
        destruct (r_free _ _ _ HR F' HF') as (B1 & B2 & B3).
        split; [unfold backed in *; rewrite Elo, Ecnt; exact B1|]. split.
        -- unfold g2. rewrite (Pe2 F' HneF). apply Pn; [exact B2|].
           destruct (Hown F') as [E | (_ & Hin & _)]; [rewrite E; apply proj_none; exact B2|].
           exfalso. apply B3. eapply in_firstn; exact Hin.
        -- rewrite Hn. intros Hin. apply B3. eapply in_skipn; exact Hin.
      * rewrite Epr. exact (r_prot _ _ _ HR).
      * rewrite Ezf. exact (r_zf _ _ _ HR).
      * intros F' HF' Hz'. rewrite Hn in HF'. apply (r_pool _ _ _ HR F'); [eapply in_skipn; exact HF' | exact Hz'].
    + intros F' i HF' HF2. apply in_remove in HF2. destruct HF2 as [_ Hne].
      destruct (r_free _ _ _ HR F' HF') as (_ & B2 & B3). apply Hfr; [|exact Hne].
      destruct (Hown F') as [E | (_ & Hin & _)]; [rewrite E; apply proj_none; exact B2|].
      exfalso. apply B3. eapply in_firstn; exact Hin.
  - destruct (Hfail E0) as (HI' & Htr' & Hfr').
    pose proof (rel_set_pdt s a g k F HR) as HR0.
    destruct (rel_update (set_pdt s k F) s' (set_aslot a k None) g A own1 n (am a A) (atlb a) HR0 HA (inv_wf _ _ _ _ HI')
                Elo Ecnt Ecr Hn) as (g' & HR' & Hdata); try assumption.
    + intros k'. cbn [pdts set_pdt]. destruct (N.eqb_spec k' k) as [->|Hk]; [exact Hsl | exact (Hosl k' Hk)].
    + intros q Hq. rewrite (Htr' q Hq). exact (r_tr _ _ _ HR A HA q Hq).
    + rewrite (Hfl1 E0). exact (r_tlb _ _ _ HR).
    + exists (set_aslot a k None), g'. destruct Herr as [E|E]; [congruence|]. rewrite E in *.
      split; [exact Hrun|]. split; [right; split; reflexivity|].
      split; [exact (Rel_aeq _ _ (set_aslot a k None) _ (aeq_same_am (set_aslot a k None) A _) HR') | intros F' i HF' _; exact (Hdata F' i HF')].
Qed.

Lemma ginv_pop s roots g x r : GInv s roots g -> orc s = x :: r -> GInv (set_orc s r) roots g.
Proof.
  intros [G1 G2 G3 G4 G5] Eo. split; try assumption.
  - intros R HR. apply (WF_ent_eq s _ R (proj g R) (G1 R HR)); reflexivity.
  - cbn [orc set_orc]. rewrite Eo, ofr_cons in G3. destruct (x =? 0); [exact G3 | inversion G3; assumption].
  - intros f Hin Hz. apply (G4 f); [rewrite Eo; right; exact Hin | exact Hz].
Qed.

Lemma rel_pop s a g x r : Rel s a g -> orc s = x :: r -> Rel (set_orc s r) a g.
Proof.
  intros [G Hact Htr Htlb Hlast Hwfl Hslot Hfree Hprot Hzf Hpool] Eo.
  split; try assumption.
  - eapply ginv_pop; eassumption.
  - intros F HF. destruct (Hfree F HF) as (B1 & B2 & B3). split; [exact B1|]. split; [exact B2|].
    cbn [orc set_orc]. intros Hin. apply B3. rewrite Eo. right. exact Hin.
  - intros F HF. apply Hpool. rewrite Eo. right. exact HF.
Qed.

Lemma rel_pop_free s a g x r : Rel s a g -> orc s = x :: r -> x <> 0 -> Rel (set_orc s r) (add_free a x) g.
Proof.
  intros HR Eo Hx. pose proof (rel_pop s a g x r HR Eo) as [G Hact Htr Htlb Hlast Hwfl Hslot Hfree Hprot Hzf Hpool].
  pose proof (r_g _ _ _ HR) as G0.
  assert (Hxr: ~ In x r).
  { pose proof (gi_nodup _ _ _ G0) as Hnd. rewrite Eo in Hnd. exact (ofr_head_fresh x r Hnd Hx). }
  split; cbn [aroots am aact atlb aslot alast afree aprot azf apool add_free]; try assumption.
  - intros F [<-|HF]; [|exact (Hfree F HF)].
    destruct (gi_fresh _ _ _ G0 x) as [B1 B2]; [rewrite Eo; left; reflexivity | exact Hx |].
    split; [exact B1|]. split; [exact B2 | exact Hxr].
  - intros F HF Hz. apply in_in_remove; [|exact (Hpool F HF Hz)]. intros ->. exact (Hxr HF).
Qed.

Lemma rel_set_zf s a g z : Rel s a g -> Rel (set_zf s z) (set_azf a z) g.
Proof.
  intros [G Hact Htr Htlb Hlast Hwfl Hslot Hfree Hprot Hzf Hpool].
  split; cbn [aroots am aact atlb aslot alast afree aprot azf apool set_azf]; try assumption; try reflexivity.
  apply (ginv_ent_eq s _ _ g G); try reflexivity. exact (gi_act _ _ _ G).
Qed.

Lemma rel_set_prot s a g b : Rel s a g -> Rel (set_prot s b) (set_aprot a b) g.
Proof.
  intros [G Hact Htr Htlb Hlast Hwfl Hslot Hfree Hprot Hzf Hpool].
  split; cbn [aroots am aact atlb aslot alast afree aprot azf apool set_aprot]; try assumption; try reflexivity.
  apply (ginv_ent_eq s _ _ g G); try reflexivity. exact (gi_act _ _ _ G).
Qed.

(** overwriting a frame that no address space uses as a table changes no translation *)
Lemma rel_zero_free s a g F : Rel s a g -> In F (afree a) -> Rel (set_mem s (zero (mem s) F)) a g.
Proof.
  intros [G Hact Htr Htlb Hlast Hwfl Hslot Hfree Hprot Hzf Hpool] HF.
  destruct (Hfree F HF) as (_ & HgF & _).
  set (s' := set_mem s (zero (mem s) F)).
  assert (He: forall R f p i, proj g R f = Some p -> ent s' f i = ent s f i).
  { intros R f p i Hp. apply proj_some in Hp. unfold s', ent. cbn [mem set_mem]. rewrite rd_zero.
    destruct (N.eqb_spec f F) as [->|]; [congruence | reflexivity]. }
  split; try assumption.
  - apply (ginv_ent_eq s s' _ g G); try reflexivity; [exact (gi_act _ _ _ G) | exact He].
  - intros R HR q Hq. rewrite <- (Htr R HR q Hq). unfold translation.
    rewrite (aspace_ent_eq s s' R (proj g R) q (gi_wf _ _ _ G R HR)); try reflexivity; [exact (He R) | exact Hq].
Qed.

Lemma r_arm s a g :
  Rel s a g -> aprot a = false ->
  exists s' err a' g',
    reserve_zeroed s = Ok (s', err) /\ AArm a (err, zf s') a' /\ Rel s' a' g' /\
    (forall F i, In F (afree a) -> ent s' F i = ent s F i) /\
    (err = 0 -> forall i, ent s' (zf s') i = 0).
Proof.
  intros HR Hp. unfold reserve_zeroed, alloc.
  destruct (orc s) as [|x r] eqn:Eo.
  { exists (set_zf s mm_InvalidFrame), E_ALLOC, (set_azf a mm_InvalidFrame), g.
    split; [reflexivity|]. split; [left; split; reflexivity|]. split; [apply rel_set_zf; exact HR|].
    split; [reflexivity | discriminate]. }
  destruct (N.eqb_spec x 0) as [Ex|Ex].
  { exists (set_zf (set_orc s r) mm_InvalidFrame), E_ALLOC, (set_azf a mm_InvalidFrame), g.
    split; [reflexivity|]. split; [left; split; reflexivity|].
    split; [apply rel_set_zf; eapply rel_pop; eassumption|]. split; [reflexivity | discriminate]. }
  assert (Hpl: In x (apool a)) by (apply (r_pool _ _ _ HR); [rewrite Eo; left; reflexivity | exact Ex]).
  assert (Hnf: ~ In x (afree a)).
  { intros Hin. destruct (r_free _ _ _ HR x Hin) as (_ & _ & B3). apply B3. rewrite Eo. left. reflexivity. }
  set (a2 := set_azf (add_free a x) x).
  assert (HR2: Rel (set_zf (set_orc s r) x) a2 g) by (apply rel_set_zf; apply rel_pop_free; assumption).
  assert (Hx40: x < 2 ^ 40).
  { destruct (r_free _ _ _ HR2 x ltac:(left; reflexivity)) as (B1 & _ & _).
    pose proof (GInv_Inv _ _ g (r_g _ _ _ HR2)) as HI. eapply backed_lt40; [exact (wf_arena _ _ _ (inv_wf _ _ _ _ HI)) | exact B1]. }
  destruct (r_map_temp _ a2 g x HR2 Hx40) as (s3 & r3 & a3' & g3 & Hrun & HA3 & HR3 & Hdata3). rewrite Hrun.
  assert (Hg2: aguard a2 x P_RW = false) by (unfold aguard, a2; cbn [aprot set_azf add_free]; rewrite Hp; reflexivity).
  cbn [AStep] in HA3. change (aact a2) with (aact a) in HA3.
  destruct HA3 as [(_ & Hg & _) | [(-> & _ & ->) | (-> & _ & ->)]]; [congruence | |]; cbn [fst snd].
  2:{ change (negb (E_ALLOC =? 0)) with true. cbn iota.
      exists s3, E_ALLOC, a2, g3. split; [reflexivity|]. split.
      - right. exists x. split; [exact Ex|]. split; [exact Hpl|]. split; [exact Hnf|]. right. rewrite (r_zf _ _ _ HR3). split; reflexivity.
      - split; [exact HR3|]. split; [|discriminate]. intros F i HF. apply Hdata3. right. exact HF. }
  change (negb (0 =? 0)) with false. cbn iota.
  set (a3 := a_map a2 (aact a) temp_page x P_RW vmm_tempMappingAddr) in *.
  pose proof (r_g _ _ _ HR3) as G3. pose proof (r_act _ _ _ HR3) as Hact3.
  pose proof (GInv_Inv s3 _ g3 G3) as HI3. rewrite Hact3 in HI3. change (aact a3) with (aact a) in *. set (A := aact a) in *.
  assert (HA3: In A (aroots a3)) by (rewrite <- Hact3; exact (gi_act _ _ _ G3)).
  assert (Hfree3: In x (afree a3)) by (left; reflexivity).
  destruct (r_free _ _ _ HR3 x Hfree3) as (Hb3 & _ & _).
  assert (Htr3: translation s3 A temp_page = Some (x, P_RW)).
  { rewrite (r_tr _ _ _ HR3 A HA3 temp_page temp_idx0). unfold a3, a_map. cbn [am set_tlb set_am].
    fold A. rewrite N.eqb_refl. unfold aupd. destruct (list_eq_dec N.eq_dec (ixs temp_page) (ixs temp_page)); [reflexivity | congruence]. }
  assert (Hrp: resolve_page s3 (frame_addr temp_page) = Some x).
  { rewrite resolve_page_mmu. unfold translation in Htr3. destruct (aspace s3 A temp_page) as [e|] eqn:Ea; [|discriminate].
    destruct (hw_P e) eqn:HP; [|discriminate]. injection Htr3 as Hfe _.
    destruct (mmu_aspace s3 A A (proj g3 A) temp_page e HI3 eq_refl temp_idx0 Ea HP) as [M _]; [rewrite Hfe; exact Hb3|].
    rewrite Hfe in M. exact M. }
  rewrite Hrp.
  set (s4 := set_mem s3 (zero (mem s3) x)).
  pose proof (rel_zero_free s3 a3 g3 x HR3 Hfree3) as HR4. fold s4 in HR4.
  destruct (r_unmap s4 a3 g3 temp_page HR4 temp_idx0) as (s5 & err5 & a5 & g5 & Hrun5 & HA5 & HR5 & Hdata5). rewrite Hrun5.
  assert (He4: forall i, ent s4 x i = 0).
  { intros i. unfold s4, ent. cbn [mem set_mem]. rewrite rd_zero, N.eqb_refl. reflexivity. }
  unfold AUnmapStep in HA5. rewrite N.eqb_refl in HA5. change (aact a3) with A in HA5.
  destruct HA5 as [(_ & ->) | (_ & _ & Hn)].
  2:{ exfalso. rewrite <- (r_tr _ _ _ HR3 A HA3 temp_page temp_idx0), Htr3 in Hn. discriminate. }
  assert (Hzf5: zf s5 = x) by (rewrite (r_zf _ _ _ HR5); reflexivity).
  exists (set_prot s5 true), E_OK, (a_arm a x), g5.
  split; [reflexivity|]. split.
  { right. exists x. split; [exact Ex|]. split; [exact Hpl|]. split; [exact Hnf|]. left.
    change (zf (set_prot s5 true)) with (zf s5). rewrite Hzf5. split; reflexivity. }
  split; [apply rel_set_prot; exact HR5|]. split.
  - intros F i HF. change (ent (set_prot s5 true) F i) with (ent s5 F i).
    rewrite (Hdata5 F i) by (right; exact HF).
    assert (F <> x) by (intros ->; exact (Hnf HF)).
    transitivity (ent s3 F i); [|apply Hdata3; right; exact HF].
    unfold s4, ent. cbn [mem set_mem]. rewrite rd_zero. destruct (N.eqb_spec F x); [congruence | reflexivity].
  - intros _ i. change (zf (set_prot s5 true)) with (zf s5). change (ent (set_prot s5 true) (zf s5) i) with (ent s5 (zf s5) i).
    rewrite Hzf5, (Hdata5 x i Hfree3). apply He4.
Qed.

Lemma slot_small k : k < 8 -> slot_of k = k.
Proof. intros H. unfold slot_of. change 7 with (N.ones 3). rewrite N.land_ones. apply N.mod_small. exact H. Qed.

Lemma rel_set_inited s a g k : Rel s a g -> Rel (set_inited s k) a g.
Proof.
  intros [G Hact Htr Htlb Hlast Hwfl Hslot Hfree Hprot Hzf Hpool].
  split; try assumption.
  apply (ginv_ent_eq s _ _ g G); try reflexivity. exact (gi_act _ _ _ G).
Qed.

Lemma qop_eq_arm o : o = QArm \/ o <> QArm.
Proof. destruct o; (left; reflexivity) || (right; discriminate). Qed.

Lemma step_intro o s a r s1 a1 g1 :
  o <> QArm -> step (to_op o) s = Ok (s1, fst r, snd r) -> AStep o r a a1 -> cstep_ok o s s1 -> Rel s1 a1 g1 ->
  (forall F i, In F (afree a) -> In F (afree a1) -> ent s1 F i = ent s F i) ->
  exists r s1 a1 g1,
    step (to_op o) s = Ok (s1, fst r, snd r) /\ AStep o r a a1 /\ cstep_ok o s s1 /\ Rel s1 a1 g1 /\
    (forall F i, In F (afree a) -> In F (afree a1) -> ent s1 F i = ent s F i) /\
    (o = QArm -> fst r = 0 -> forall i, ent s1 (zf s1) i = 0).
Proof.
  intros Hne P1 P2 P3 P4 P5. exists r, s1, a1, g1.
  split; [exact P1|]. split; [exact P2|]. split; [exact P3|]. split; [exact P4|]. split; [exact P5 | congruence].
Qed.

Lemma step_refines o s a g :
  Rel s a g -> qdom o a ->
  exists r s1 a1 g1,
    step (to_op o) s = Ok (s1, fst r, snd r) /\ AStep o r a a1 /\ cstep_ok o s s1 /\ Rel s1 a1 g1 /\
    (forall F i, In F (afree a) -> In F (afree a1) -> ent s1 F i = ent s F i) /\
    (o = QArm -> fst r = 0 -> forall i, ent s1 (zf s1) i = 0).
Proof.
  intros HR Hd.
  destruct o as [p f fl | p | va | f | f sz fl | f sz fl | k F | k p f fl | k p | k |].
  - (* Map *)
    destruct (r_map s a g p f fl HR Hd) as (s' & err & a' & g' & Hrun & HA & HR' & Hdata).
    refine (step_intro (QMap p f fl) s a (err, 0) s' a' g' _ _ HA I HR' (fun F i HF _ => Hdata F i HF)); [discriminate|].
    cbn [to_op step]. rewrite Hrun. reflexivity.
  - (* Unmap *)
    destruct (r_unmap s a g p HR Hd) as (s' & err & a' & g' & Hrun & HA & HR' & Hdata).
    refine (step_intro (QUnmap p) s a (err, 0) s' a' g' _ _ HA I HR' (fun F i HF _ => Hdata F i HF)); [discriminate|].
    cbn [to_op step]. rewrite Hrun. reflexivity.
  - (* Translate *)
    refine (step_intro (QTranslate va) s a (atranslate (am a (aact a)) va) s a g _ _ (conj eq_refl eq_refl) I HR (fun F i _ _ => eq_refl));
      [discriminate|].
    cbn [to_op step]. rewrite (r_translate s a g va HR Hd). destruct (atranslate (am a (aact a)) va). reflexivity.
  - (* MapTemporary *)
    destruct (r_map_temp s a g f HR Hd) as (s' & r & a' & g' & Hrun & HA & HR' & Hdata).
    refine (step_intro (QMapTemp f) s a r s' a' g' _ Hrun HA I HR' (fun F i HF _ => Hdata F i HF)). discriminate.
  - (* MapRegion *)
    destruct (r_map_region s a g f sz fl HR Hd) as (s' & r & a' & g' & Hrun & HA & HR' & Hdata).
    refine (step_intro (QMapRegion f sz fl) s a r s' a' g' _ Hrun HA I HR' (fun F i HF _ => Hdata F i HF)). discriminate.
  - (* IdentityMapRegion *)
    destruct (r_id_map_region s a g f sz fl HR Hd) as (s' & r & a' & g' & Hrun & HA & HR' & Hdata).
    refine (step_intro (QIdMapRegion f sz fl) s a r s' a' g' _ Hrun HA I HR' (fun F i HF _ => Hdata F i HF)). discriminate.
  - (* Init *)
    destruct Hd as (Hk & HF & Hg).
    destruct (r_pdt_init s a g k F HR HF Hg) as (s' & err & a' & g' & Hrun & HA & HR' & Hdata).
    refine (step_intro (QPdtInit k F) s a (err, 0) (if err =? 0 then set_inited s' k else s') a' g' _ _ HA I _ _).
    + discriminate.
    + cbn [to_op step]. rewrite (slot_small k Hk), Hrun. reflexivity.
    + destruct (err =? 0); [apply rel_set_inited|]; exact HR'.
    + intros F' i H1 H2. rewrite <- (Hdata F' i H1 H2). destruct (err =? 0); reflexivity.
  - (* PageDirectoryTable.Map *)
    destruct Hd as (Hk & Hsl & Hok). destruct (aslot a k) as [T|] eqn:Ek; [|congruence].
    destruct (r_slot _ _ _ HR k T Ek) as [Hpd _].
    destruct (r_pdt_map s a g k T p f fl HR Ek Hok) as (s' & err & a' & g' & Hrun & HA & HR' & Hdata & Hroot).
    refine (step_intro (QPdtMap k p f fl) s a (err, 0) s' a' g' _ _ _ _ HR' (fun F i HF _ => Hdata F i HF)).
    + discriminate.
    + cbn [to_op step]. rewrite (slot_small k Hk), Hrun. reflexivity.
    + rewrite (astep_pdt_map k T _ _ _ _ _ _ Ek). exact HA.
    + cbn [cstep_ok]. rewrite Hpd, (r_act _ _ _ HR). exact Hroot.
  - (* PageDirectoryTable.Unmap *)
    destruct Hd as (Hk & Hsl & H511). destruct (aslot a k) as [T|] eqn:Ek; [|congruence].
    destruct (r_slot _ _ _ HR k T Ek) as [Hpd _].
    destruct (r_pdt_unmap s a g k T p HR Ek H511) as (s' & err & a' & g' & Hrun & HA & HR' & Hdata & Hroot).
    refine (step_intro (QPdtUnmap k p) s a (err, 0) s' a' g' _ _ _ _ HR' (fun F i HF _ => Hdata F i HF)).
    + discriminate.
    + cbn [to_op step]. rewrite (slot_small k Hk), Hrun. reflexivity.
    + rewrite (astep_pdt_unmap k T _ _ _ _ Ek). exact HA.
    + cbn [cstep_ok]. rewrite Hpd, (r_act _ _ _ HR). exact Hroot.
  - (* Activate *)
    destruct Hd as (Hk & Hsl). destruct (aslot a k) as [T|] eqn:Ek; [|congruence].
    destruct (r_activate s a g k T HR Ek) as [HR' Hent].
    refine (step_intro (QActivate k) s a (0, 0) (pdt_activate k s) (set_aact a T) g _ _ _ I HR' (fun F i _ _ => Hent F i)).
    + discriminate.
    + cbn [to_op step]. rewrite (slot_small k Hk). reflexivity.
    + rewrite (astep_activate k T _ _ _ Ek). split; reflexivity.
  - (* reserveZeroedFrame *)
    destruct (r_arm s a g HR Hd) as (s' & err & a' & g' & Hrun & HA & HR' & Hdata & Hzero).
    exists (err, zf s'), s', a', g'. cbn [to_op step fst snd]. rewrite Hrun.
    split; [reflexivity|]. split; [exact HA|]. split; [exact I|]. split; [exact HR'|]. split.
    + intros F i HF _. exact (Hdata F i HF).
    + intros _ E. exact (Hzero E).
Qed.

(** what a step of the abstract machine leaves alone *)
Lemma a_range_frame fl R : forall j a p0 f0,
  aroots (a_range a R p0 f0 fl j) = aroots a /\ aprot (a_range a R p0 f0 fl j) = aprot a /\
  azf (a_range a R p0 f0 fl j) = azf a /\ apool (a_range a R p0 f0 fl j) = apool a.
Proof.
  induction j as [|j IH]; intros a p0 f0; [repeat split|]. cbn [a_range].
  destruct (IH (a_map a R p0 f0 fl (frame_addr p0)) (p0 + 1) (f0 + 1)) as (I1 & I2 & I3 & I4).
  rewrite I1, I2, I3, I4. repeat split.
Qed.

Definition step_keeps (o : qop) (a x : ast) : Prop :=
  aprot x = aprot a /\ azf x = azf a /\ apool x = apool a /\ incl (aroots a) (aroots x) /\
  (forall F, In F (afree a) -> In F (afree x) \/ (In F (aroots x) /\ exists k, o = QPdtInit k F)).

Lemma keeps_same o a x :
  aprot x = aprot a -> azf x = azf a -> apool x = apool a -> aroots x = aroots a -> afree x = afree a -> step_keeps o a x.
Proof.
  intros E1 E2 E3 E4 E5. unfold step_keeps. rewrite E1, E2, E3, E4, E5.
  repeat split; [apply incl_refl | intros F HF; left; exact HF].
Qed.

Lemma astep_frame o r a a' : AStep o r a a' -> o <> QArm -> step_keeps o a a'.
Proof.
  intros HA Hne.
  assert (MapS: forall R p f fl x, AMapStep a R p f fl r x -> step_keeps o a x).
  { intros R p f fl x H. unfold AMapStep in H. destruct (R =? aact a).
    - destruct (aguard a f fl); [destruct H as (_ & ->) | destruct H as [(_ & ->) | (_ & ->)]]; apply keeps_same; reflexivity.
    - destruct H as [(_ & _ & ->) | [(_ & _ & ->) | (_ & _ & ->)]]; apply keeps_same; reflexivity. }
  assert (UnmapS: forall R p x, AUnmapStep a R p r x -> step_keeps o a x).
  { intros R p x H. unfold AUnmapStep in H. destruct (R =? aact a).
    - destruct H as [(_ & ->) | (_ & -> & _)]; apply keeps_same; reflexivity.
    - destruct H as [(_ & ->) | (_ & _ & ->)]; apply keeps_same; reflexivity. }
  destruct o as [p f fl | p | va | f | f sz fl | f sz fl | k F | k p f fl | k p | k |]; cbn [AStep] in HA; [.. | congruence].
  - exact (MapS _ _ _ _ _ HA).
  - exact (UnmapS _ _ _ HA).
  - destruct HA as (_ & ->). apply keeps_same; reflexivity.
  - destruct HA as [(_ & _ & ->) | [(_ & _ & ->) | (_ & _ & ->)]]; apply keeps_same; reflexivity.
  - destruct (reserve_spec (alast a) sz) as [[a0 len]|]; [|destruct HA as (_ & ->); apply keeps_same; reflexivity].
    destruct HA as (j & -> & _).
    destruct (a_range_frame fl (aact a) j (set_alast a a0) (a0 / 4096) f) as (I1 & I2 & I3 & I4).
    apply keeps_same; try assumption. exact (proj2 (a_range_act _ _ _ _ _ _)).
  - destruct HA as (j & -> & _).
    destruct (a_range_frame fl (aact a) j a f f) as (I1 & I2 & I3 & I4).
    apply keeps_same; try assumption. exact (proj2 (a_range_act _ _ _ _ _ _)).
  - destruct HA as [(_ & ->) | (_ & ->)]; [|apply keeps_same; reflexivity].
    unfold step_keeps. cbn [aprot azf apool aroots afree a_init]. repeat split.
    + intros R HR. right. exact HR.
    + intros F' HF'. destruct (N.eq_dec F' F) as [->|Hn]; [right; split; [left; reflexivity | exists k; reflexivity] | left; apply in_in_remove; assumption].
  - destruct (aslot a k); [exact (MapS _ _ _ _ _ HA) | contradiction].
  - destruct (aslot a k); [exact (UnmapS _ _ _ HA) | contradiction].
  - destruct (aslot a k); [|contradiction]. destruct HA as (_ & ->). apply keeps_same; reflexivity.
Qed.

Lemma aarm_frame a r a' :
  AArm a r a' -> incl (apool a') (apool a) /\ aroots a' = aroots a /\ incl (afree a) (afree a').
Proof.
  intros [(_ & ->) | (F & _ & _ & _ & [(_ & ->) | (_ & ->)])]; cbn; repeat split; try apply incl_refl;
    try (intros x Hx; right; exact Hx); intros x Hx; apply in_remove in Hx; tauto.
Qed.

Lemma astep_mono o r a a' :
  AStep o r a a' -> incl (aroots a) (aroots a') /\ (forall F, In F (afree a) -> In F (afree a') \/ In F (aroots a')).
Proof.
  intros HA. destruct (qop_eq_arm o) as [->|Hne].
  - destruct (aarm_frame a r a' HA) as (_ & E & Hi). rewrite E. split; [apply incl_refl|]. intros F HF. left. apply Hi. exact HF.
  - destruct (astep_frame o r a a' HA Hne) as (_ & _ & _ & H1 & H2). split; [exact H1|].
    intros F HF. destruct (H2 F HF) as [H | [H _]]; [left | right]; exact H.
Qed.

(** a run of the executable model together with a run of the abstract machine *)
(** histories are adaptive: the client sees the answer (error, value) of a request before choosing the next one -
    a plain list of requests is the special case [of_list] *)
Inductive hist :=
| HDone
| HOp (o : qop) (k : N * N -> hist).

Fixpoint of_list (ops : list qop) : hist :=
  match ops with
  | [] => HDone
  | o :: r => HOp o (fun _ => of_list r)
  end.

(** a run: every request is executed by the model's [step]; the abstract machine takes an [AStep] with the same answer *)
Inductive Steps : hist -> st -> ast -> list (qop * (N * N)) -> st -> ast -> Prop :=
| Steps_nil s a : Steps HDone s a [] s a
| Steps_cons o k s a r s1 a1 rs s' a' :
    step (to_op o) s = Ok (s1, fst r, snd r) -> AStep o r a a1 -> cstep_ok o s s1 ->
    Steps (k r) s1 a1 rs s' a' -> Steps (HOp o k) s a ((o, r) :: rs) s' a'.

(** every request satisfies [P] in whatever abstract state the history has reached *)
Fixpoint hsafe (P : qop -> ast -> Prop) (h : hist) (a : ast) : Prop :=
  match h with
  | HDone => True
  | HOp o k => P o a /\ forall res a', AStep o res a a' -> hsafe P (k res) a'
  end.

Definition qsafe : hist -> ast -> Prop := hsafe qdom.

Lemma hsafe_weaken (P Q : qop -> ast -> Prop) : (forall o a, P o a -> Q o a) -> forall h a, hsafe P h a -> hsafe Q h a.
Proof.
  intros HPQ. induction h as [|o k IH]; intros a H; [exact I|]. destruct H as [H1 H2].
  split; [apply HPQ; exact H1|]. intros res a' HA. apply IH. exact (H2 res a' HA).
Qed.

Lemma free_not_root s a g F : Rel s a g -> In F (afree a) -> ~ In F (aroots a).
Proof.
  intros HR HF Hr. destruct (r_free _ _ _ HR F HF) as (_ & B2 & _).
  rewrite (root_owned s _ g F (r_g _ _ _ HR) Hr) in B2. discriminate.
Qed.

Theorem histories_full h : forall s a g,
  Rel s a g -> qsafe h a ->
  exists rs s' a' g',
    Steps h s a rs s' a' /\ Rel s' a' g' /\
    (forall F i, In F (afree a) -> In F (afree a') -> ent s' F i = ent s F i) /\ incl (aroots a) (aroots a').
Proof.
  induction h as [|o k IH]; intros s a g HR Hs.
  - exists [], s, a, g. split; [constructor|]. split; [exact HR|]. split; [reflexivity | apply incl_refl].
  - destruct Hs as [Hd Hnext].
    destruct (step_refines o s a g HR Hd) as (res & s1 & a1 & g1 & Hrun & HA & Hc & HR1 & Hdata & _).
    destruct (IH res s1 a1 g1 HR1 (Hnext res a1 HA)) as (rs & s' & a' & g' & HS & HR' & Hdata' & Hincl').
    destruct (astep_mono o res a a1 HA) as [Hr1 Hf1].
    exists ((o, res) :: rs), s', a', g'. split; [econstructor; eassumption|]. split; [exact HR'|]. split.
    + intros F i HF HF'. destruct (Hf1 F HF) as [H1|H1].
      * rewrite (Hdata' F i H1 HF'). exact (Hdata F i HF H1).
      * exfalso. exact (free_not_root s' a' g' F HR' HF' (Hincl' F H1)).
    + intros R HRr. apply Hincl'. apply Hr1. exact HRr.
Qed.

(** the model's [step] is a function, so the run is unique: any run of [h] from [s] produces the same answers and
    the same final concrete state *)
Lemma Steps_det h : forall s a rs s' a' b rs2 s2 b2,
  Steps h s a rs s' a' -> Steps h s b rs2 s2 b2 -> rs = rs2 /\ s' = s2.
Proof.
  induction h as [|o k IH]; intros s a rs s' a' b rs2 s2 b2 H1 H2.
  - inversion H1; inversion H2; subst. split; reflexivity.
  - inversion H1 as [|? ? ? ? r1 t1 a1 rs1' ? ? Hr1 _ _ Hs1]; subst.
    inversion H2 as [|? ? ? ? r2 t2 a2 rs2' ? ? Hr2 _ _ Hs2]; subst.
    rewrite Hr1 in Hr2. injection Hr2 as E1 E2 E3. subst t2.
    assert (r1 = r2) by (destruct r1, r2; cbn in *; congruence). subst r2.
    destruct (IH r1 _ _ _ _ _ _ _ _ _ Hs1 Hs2) as [-> ->]. split; reflexivity.
Qed.

(** * The boot state implements the empty abstract machine *)
Definition a_boot (lo0 l0 : N) (free pool : list N) : ast :=
  mkA (fun _ _ => None) lo0 [] (fun _ => None) l0 [lo0] free false 0 pool.

Lemma rel_boot lo0 cnt0 last0 oracle free pool :
  0 < cnt0 -> lo0 + cnt0 <= 2 ^ 40 ->
  NoDup (ofr oracle) -> (forall f, In f oracle -> f <> 0 -> lo0 < f /\ f < lo0 + cnt0) ->
  (forall F, In F free -> lo0 < F /\ F < lo0 + cnt0 /\ ~ In F oracle) ->
  WFstart (if last0 =? 0 then vmm_tempMappingAddr else last0) -> incl oracle pool ->
  Rel (init_state lo0 cnt0 last0 oracle) (a_boot lo0 (if last0 =? 0 then vmm_tempMappingAddr else last0) free pool)
      (fun f => if f =? lo0 then Some (lo0, []) else None).
Proof.
  intros Hc Har Hnd Hor Hfree Hw Hpl.
  pose proof (Inv_init lo0 cnt0 last0 oracle Hc Har Hnd Hor) as HI.
  set (s := init_state lo0 cnt0 last0 oracle) in *.
  set (g0 := fun f => if f =? lo0 then Some (lo0, []) else None).
  assert (Ecr: N.shiftr (cr3 s) 12 = lo0) by exact (inv_cr3 _ _ _ _ HI).
  assert (Hz: forall i, i <> 511 -> ent s lo0 i = 0).
  { intros i Hi. unfold s, init_state, ent. cbn [mem]. rewrite rd_wr, rd_zero, N.eqb_refl.
    destruct (N.eqb_spec i 511); [congruence | reflexivity]. }
  split; cbn [aroots am aact atlb aslot alast afree aprot azf apool a_boot]; try reflexivity.
  - split.
    + intros R [<-|[]]. apply (WF_ext s lo0 (own_root lo0)); [|exact (inv_wf _ _ _ _ HI)].
      intros f. unfold own_root, proj, g0. destruct (N.eqb_spec f lo0); [rewrite N.eqb_refl|]; reflexivity.
    + intros f R p. unfold g0. destruct (N.eqb_spec f lo0); [|discriminate]. intros E; inversion E. left. reflexivity.
    + exact Hnd.
    + intros f Hin Hz0. destruct (Hor f Hin Hz0) as [H1 H2]. split; [unfold backed; cbn [lo cnt s init_state]; lia|].
      unfold g0. destruct (N.eqb_spec f lo0); [lia | reflexivity].
    + rewrite Ecr. left. reflexivity.
  - exact Ecr.
  - intros R [<-|[]] q Hq. unfold translation. rewrite (empty_space s lo0 Hz q Hq). reflexivity.
  - exact Hw.
  - intros k R E. discriminate.
  - intros F HF. destruct (Hfree F HF) as (H1 & H2 & H3). split; [unfold backed; cbn [lo cnt s init_state]; lia|].
    split; [unfold g0; destruct (N.eqb_spec F lo0); [lia | reflexivity] | exact H3].
  - intros F HF _. apply Hpl. exact HF.
Qed.

(** * Corollary: the zero frame over the richer operation set (C06) *)
Definition azero_ok (a : ast) : Prop :=
  forall R k fl, am a R k = Some (azf a, fl) -> N.testbit fl 1 = false.

Lemma leafv_zero a f fl fl' :
  aprot a = true -> aguard a f fl = false -> leafv f fl = Some (azf a, fl') -> N.testbit fl' 1 = false.
Proof.
  intros Hp Hg. unfold leafv. destruct (N.testbit fl 0); [|discriminate]. intros E. injection E as E1 E2. subst f fl'.
  unfold aguard in Hg. rewrite Hp, N.eqb_refl in Hg. cbn [andb] in Hg. rewrite wants_rw_bit in Hg. exact Hg.
Qed.

Definition req_frame (o : qop) (f : N) : Prop :=
  match o with
  | QMap _ f' _ | QMapTemp f' | QPdtMap _ _ f' _ => f = f'
  | QMapRegion f' sz _ | QIdMapRegion f' sz _ => exists i, (i < N.to_nat (ceil_pages sz))%nat /\ f = f' + N.of_nat i
  | _ => False
  end.

Definition am_kept (o : qop) (a x : ast) (R : N) (k : list N) : Prop :=
  am x R k = am a R k \/ am x R k = None \/
  exists f fl, am x R k = leafv f fl /\ aguard a f fl = false /\ req_frame o f.

Lemma am_upd a R0 k0 v tl R k :
  let x := set_tlb (set_am a R0 (aupd (am a R0) k0 v)) tl in am x R k = am a R k \/ am x R k = v.
Proof.
  cbn [am set_tlb set_am]. destruct (N.eqb_spec R R0) as [->|]; [|left; reflexivity].
  unfold aupd. destruct (list_eq_dec N.eq_dec k k0); [right | left]; reflexivity.
Qed.

Lemma a_range_pt fl R : forall j a p0 f0 R' k,
  am (a_range a R p0 f0 fl j) R' k = am a R' k \/
  exists i, (i < j)%nat /\ am (a_range a R p0 f0 fl j) R' k = leafv (f0 + N.of_nat i) fl.
Proof.
  induction j as [|j IH]; intros a p0 f0 R' k; [left; reflexivity|]. cbn [a_range].
  destruct (IH (a_map a R p0 f0 fl (frame_addr p0)) (p0 + 1) (f0 + 1) R' k) as [E | (i & Hi & E)]; rewrite E.
  - destruct (am_upd a R (ixs p0) (leafv f0 fl) (frame_addr p0 :: atlb a) R' k) as [E'|E']; [left; exact E' | right].
    exists 0%nat. split; [lia|]. rewrite N.add_0_r. exact E'.
  - right. exists (S i). split; [lia|]. f_equal. lia.
Qed.

Lemma astep_am o r a a' R k : qdom o a -> AStep o r a a' -> o <> QArm -> am_kept o a a' R k.
Proof.
  intros Hd HA Hne.
  assert (Upd: forall R0 p v tl, (v = None \/ exists f fl, v = leafv f fl /\ aguard a f fl = false /\ req_frame o f) ->
               am_kept o a (set_tlb (set_am a R0 (aupd (am a R0) (ixs p) v)) tl) R k).
  { intros R0 p v tl Hv. unfold am_kept. destruct (am_upd a R0 (ixs p) v tl R k) as [E|E]; rewrite E; [left; reflexivity | right].
    destruct Hv as [->|(f & fl & -> & H)]; [left; reflexivity | right; exists f, fl; split; [reflexivity | exact H]]. }
  assert (Same: forall tl, am_kept o a (set_tlb a tl) R k) by (intros tl; left; reflexivity).
  assert (MapS: forall R0 p f fl x, req_frame o f -> AMapStep a R0 p f fl r x -> am_kept o a x R k).
  { intros R0 p f fl x Hreq H. unfold AMapStep in H. destruct (R0 =? aact a).
    - destruct (aguard a f fl) eqn:Hg; [destruct H as (_ & ->); left; reflexivity|].
      destruct H as [(_ & ->) | (_ & ->)]; [|left; reflexivity]. apply Upd. right. exists f, fl. repeat split; assumption.
    - destruct H as [(_ & Hg & ->) | [(_ & _ & ->) | (_ & _ & ->)]]; [|apply Same | apply Same].
      apply Upd. right. exists f, fl. repeat split; assumption. }
  assert (UnmapS: forall R0 p x, AUnmapStep a R0 p r x -> am_kept o a x R k).
  { intros R0 p x H. unfold AUnmapStep in H. destruct (R0 =? aact a).
    - destruct H as [(_ & ->) | (_ & -> & _)]; [apply Upd; left; reflexivity | left; reflexivity].
    - destruct H as [(_ & ->) | (_ & _ & ->)]; [apply Upd; left; reflexivity | apply Same]. }
  assert (Range: forall a0 p0 f sz fl j,
            (forall i, (i < N.to_nat (ceil_pages sz))%nat -> aguard a (f + N.of_nat i) fl = false) ->
            (forall i, (i < N.to_nat (ceil_pages sz))%nat -> req_frame o (f + N.of_nat i)) ->
            (j <= N.to_nat (ceil_pages sz))%nat -> (forall R' k', am a0 R' k' = am a R' k') ->
            am_kept o a (a_range a0 (aact a) p0 f fl j) R k).
  { intros a0 p0 f sz fl j Hg Hreq Hj Ha0. unfold am_kept.
    destruct (a_range_pt fl (aact a) j a0 p0 f R k) as [E | (i & Hi & E)]; rewrite E; [left; apply Ha0 | right; right].
    exists (f + N.of_nat i), fl. split; [reflexivity|]. split; [apply Hg | apply Hreq]; lia. }
  destruct o as [p f fl | p | va | f | f sz fl | f sz fl | k0 F | k0 p f fl | k0 p | k0 |]; cbn [AStep qdom] in *; [.. | congruence].
  - exact (MapS _ _ _ _ _ eq_refl HA).
  - exact (UnmapS _ _ _ HA).
  - destruct HA as (_ & ->). left; reflexivity.
  - destruct HA as [(_ & _ & ->) | [(_ & Hg & ->) | (_ & _ & ->)]]; [left; reflexivity | | left; reflexivity].
    apply Upd. right. exists f, P_RW. repeat split. exact Hg.
  - destruct Hd as (_ & Hdom). destruct (reserve_spec (alast a) sz) as [[a0 len]|]; [|destruct HA as (_ & ->); left; reflexivity].
    destruct HA as (j & -> & Hj). destruct Hdom as (_ & _ & Hdom).
    apply (Range _ _ _ sz); [intros i Hi; exact (proj2 (Hdom i Hi)) | intros i Hi; exists i; split; [exact Hi | reflexivity] | | reflexivity].
    destruct Hj as [(_ & ->) | (_ & Hlt)]; lia.
  - destruct Hd as (_ & _ & _ & Hdom). destruct HA as (j & -> & Hj).
    apply (Range _ _ _ sz); [intros i Hi; exact (proj2 (Hdom i Hi)) | intros i Hi; exists i; split; [exact Hi | reflexivity] | | reflexivity].
    destruct Hj as [(_ & ->) | (_ & Hlt)]; lia.
  - destruct HA as [(_ & ->) | (_ & ->)]; [|left; reflexivity]. unfold am_kept. cbn [am a_init].
    destruct (R =? F); [right; left; reflexivity|]. destruct (N.eqb_spec R (aact a)) as [->|]; [|left; reflexivity].
    unfold aupd. destruct (list_eq_dec N.eq_dec k (ixs temp_page)); [right; left; reflexivity | left; reflexivity].
  - destruct (aslot a k0); [exact (MapS _ _ _ _ _ eq_refl HA) | contradiction].
  - destruct (aslot a k0); [exact (UnmapS _ _ _ HA) | contradiction].
  - destruct (aslot a k0); [|contradiction]. destruct HA as (_ & ->). left; reflexivity.
Qed.

(** frames of the physical allocator are handed out only by the allocator: the client does not ask to map them *)
Definition qavoid (o : qop) (a : ast) : Prop :=
  match o with
  | QMap _ f _ | QMapTemp f | QPdtMap _ _ f _ => ~ In f (apool a)
  | QMapRegion f sz _ | QIdMapRegion f sz _ => forall i, (i < N.to_nat (ceil_pages sz))%nat -> ~ In (f + N.of_nat i) (apool a)
  | _ => True
  end.

(** no address space maps a frame that still belongs to the allocator *)
Definition NP (a : ast) : Prop := forall R k F fl, am a R k = Some (F, fl) -> ~ In F (apool a).

Lemma qavoid_req o a f : qavoid o a -> req_frame o f -> ~ In f (apool a).
Proof.
  destruct o; cbn [qavoid req_frame]; intros Hq Hr; try contradiction; try (rewrite Hr; exact Hq).
  all: destruct Hr as (i & Hi & ->); exact (Hq i Hi).
Qed.

Lemma astep_np o r a a' : qdom o a -> qavoid o a -> NP a -> AStep o r a a' -> NP a'.
Proof.
  intros Hd Hq Hn HA. destruct (qop_eq_arm o) as [->|Hne].
  - assert (Hrm: forall F F', ~ In F' (apool a) -> ~ In F' (remove N.eq_dec F (apool a))).
    { intros F F' H Hin. apply in_remove in Hin. tauto. }
    destruct HA as [(_ & ->) | (F & _ & _ & _ & [(_ & ->) | (_ & ->)])]; [exact Hn | | intros R k F' fl' E; apply Hrm; exact (Hn R k F' fl' E)].
    intros R k F' fl'. unfold a_arm, a_unmap, a_map. cbn [am apool set_aprot set_tlb set_am set_azf add_free aact].
    destruct (R =? aact a); [|intros E; apply Hrm; exact (Hn _ _ _ _ E)]. rewrite N.eqb_refl. unfold aupd.
    destruct (list_eq_dec N.eq_dec k (ixs temp_page)); [discriminate | intros E; apply Hrm; exact (Hn _ _ _ _ E)].
  - destruct (astep_frame o r a a' HA Hne) as (_ & _ & E3 & _). intros R k F fl E. rewrite E3.
    destruct (astep_am o r a a' R k Hd HA Hne) as [H | [H | (f & fl0 & H & _ & Hreq)]]; rewrite H in E; [exact (Hn R k F fl E) | discriminate|].
    unfold leafv in E. destruct (N.testbit fl0 0); [|discriminate]. injection E as <- _. exact (qavoid_req o a f Hq Hreq).
Qed.

(** the abstract zero-frame invariant: once armed, no address space maps the zero frame writable, and it is a data frame *)
Definition ZI (a : ast) : Prop := aprot a = true -> azero_ok a /\ In (azf a) (afree a).

Lemma astep_zi o r a a' : qdom o a -> NP a -> ZI a -> AStep o r a a' -> ZI a'.
Proof.
  intros Hd Hn Hz HA. destruct (qop_eq_arm o) as [->|Hne].
  - cbn [AStep qdom] in *. destruct HA as [(_ & ->) | (F & _ & HFp & _ & [(_ & ->) | (_ & ->)])]; intros Hp'; cbn in Hp'; try congruence.
    split; [|left; reflexivity].
    intros R k fl. unfold a_arm, a_unmap, a_map. cbn [am azf set_aprot set_tlb set_am set_azf add_free aact].
    assert (H: forall R' fl', am a R' k <> Some (F, fl')) by (intros R' fl' E; exact (Hn R' k F fl' E HFp)).
    destruct (R =? aact a); [|intros E; exfalso; exact (H _ fl E)].
    rewrite N.eqb_refl. unfold aupd. destruct (list_eq_dec N.eq_dec k (ixs temp_page)); [discriminate | intros E; exfalso; exact (H _ fl E)].
  - destruct (astep_frame o r a a' HA Hne) as (E1 & E2 & _ & _ & Hfree). intros Hp. rewrite E1 in Hp. rewrite E2.
    destruct (Hz Hp) as [Z1 Z2]. split.
    + intros R k fl E. rewrite E2 in E.
      destruct (astep_am o r a a' R k Hd HA Hne) as [H | [H | (f & fl0 & H & Hg & _)]]; rewrite H in E;
        [exact (Z1 R k fl E) | discriminate | exact (leafv_zero a f fl0 fl Hp Hg E)].
    + destruct (Hfree _ Z2) as [H | (_ & k & ->)]; [exact H|]. exfalso.
      destruct Hd as (_ & _ & Hg). unfold aguard in Hg. rewrite Hp, N.eqb_refl, P_RW_wants in Hg. discriminate.
Qed.

(** over any history of the full operation set, the zero frame being reserved anywhere in it: once the guard is armed,
    no address space ever maps the zero frame writable, and the frame stays all zeroes *)
Theorem histories_full_zero h : forall s a g,
  Rel s a g -> hsafe (fun o a => qdom o a /\ qavoid o a) h a -> NP a -> ZI a ->
  (aprot a = true -> forall i, ent s (azf a) i = 0) ->
  exists rs s' a' g',
    Steps h s a rs s' a' /\ Rel s' a' g' /\
    (prot s' = true ->
       (forall i, ent s' (zf s') i = 0) /\
       (forall R q fl, In R (aroots a') -> hw_idx q 0 <> 511 -> translation s' R q = Some (zf s', fl) -> N.testbit fl 1 = false)).
Proof.
  induction h as [|o k IH]; intros s a g HR Hs Hn Hz Hc.
  - exists [], s, a, g. split; [constructor|]. split; [exact HR|].
    rewrite (r_prot _ _ _ HR), (r_zf _ _ _ HR). intros Hp. split; [exact (Hc Hp)|].
    intros R q fl HRr Hq Htr. rewrite (r_tr _ _ _ HR R HRr q Hq) in Htr. exact (proj1 (Hz Hp) R _ fl Htr).
  - destruct Hs as [[Hd Hav] Hnext].
    destruct (step_refines o s a g HR Hd) as (res & s1 & a1 & g1 & Hrun & HA & Hcs & HR1 & Hdata & Hzero).
    pose proof (astep_np o res a a1 Hd Hav Hn HA) as Hn1.
    pose proof (astep_zi o res a a1 Hd Hn Hz HA) as Hz1.
    assert (Hc1: aprot a1 = true -> forall i, ent s1 (azf a1) i = 0).
    { intros Hp1 i. destruct (qop_eq_arm o) as [->|Hne].
      - cbn [AStep qdom] in *. rewrite <- (r_zf _ _ _ HR1). apply Hzero; [reflexivity|].
        destruct HA as [(_ & ->) | (F & _ & _ & _ & [(-> & _) | (_ & ->)])]; cbn in Hp1; try congruence. reflexivity.
      - destruct (astep_frame o res a a1 HA Hne) as (E1 & E2 & _). rewrite E1 in Hp1.
        destruct (Hz Hp1) as [_ Z2]. destruct (Hz1 ltac:(rewrite E1; exact Hp1)) as [_ Z2'].
        rewrite E2 in *. rewrite (Hdata _ i Z2 Z2'). exact (Hc Hp1 i). }
    destruct (IH res s1 a1 g1 HR1 (Hnext res a1 HA) Hn1 Hz1 Hc1) as (rs & s' & a' & g' & HS & HR' & Hfin).
    exists ((o, res) :: rs), s', a', g'. split; [econstructor; eassumption|]. split; [exact HR' | exact Hfin].
Qed.

(** * Running a history with the executable model, from the boot state *)
Fixpoint run_hist (h : hist) (s : st) : R (list (qop * (N * N)) * st) :=
  match h with
  | HDone => Ok ([], s)
  | HOp o k =>
      match step (to_op o) s with
      | Stray => Stray
      | Ok (s1, e, v) =>
          match run_hist (k (e, v)) s1 with
          | Stray => Stray
          | Ok (rs, s') => Ok ((o, (e, v)) :: rs, s')
          end
      end
  end.

Lemma Steps_run h : forall s a rs s' a', Steps h s a rs s' a' -> run_hist h s = Ok (rs, s').
Proof.
  induction h as [|o k IH]; intros s a rs s' a' H.
  - inversion H; subst. reflexivity.
  - inversion H as [|? ? ? ? r s1 a1 rs' ? ? Hr _ _ Hs]; subst. cbn [run_hist]. rewrite Hr.
    destruct r as [e v]. cbn [fst snd] in *. rewrite (IH (e, v) _ _ _ _ _ Hs). reflexivity.
Qed.

Section Boot.
  Variables (lo0 cnt0 last0 : N) (oracle free pool : list N).
  Let l0 := if last0 =? 0 then vmm_tempMappingAddr else last0.
  Hypothesis (Hc : 0 < cnt0) (Har : lo0 + cnt0 <= 2 ^ 40) (Hnd : NoDup (ofr oracle)).
  Hypothesis Hor : forall f, In f oracle -> f <> 0 -> lo0 < f /\ f < lo0 + cnt0.
  Hypothesis Hfree : forall F, In F free -> lo0 < F /\ F < lo0 + cnt0 /\ ~ In F oracle.
  Hypothesis (Hw : WFstart l0) (Hpl : incl oracle pool).

  (** any safe history from boot runs in the model without a stray access and refines the abstract machine; once
      reserveZeroedFrame has succeeded somewhere in it, the zero frame is all zeroes and mapped writable nowhere *)
  Theorem boot_histories_zero h :
    hsafe (fun o a => qdom o a /\ qavoid o a) h (a_boot lo0 l0 free pool) ->
    exists rs s' a' g',
      run_hist h (init_state lo0 cnt0 last0 oracle) = Ok (rs, s') /\
      Steps h (init_state lo0 cnt0 last0 oracle) (a_boot lo0 l0 free pool) rs s' a' /\ Rel s' a' g' /\
      (prot s' = true ->
         (forall i, ent s' (zf s') i = 0) /\
         (forall R q fl, In R (aroots a') -> hw_idx q 0 <> 511 -> translation s' R q = Some (zf s', fl) -> N.testbit fl 1 = false)).
  Proof.
    intros Hs. pose proof (rel_boot lo0 cnt0 last0 oracle free pool Hc Har Hnd Hor Hfree Hw Hpl) as HR.
    destruct (histories_full_zero h _ _ _ HR Hs) as (rs & s' & a' & g' & HS & HR' & Hz).
    - intros R k F fl E. discriminate.
    - intros Hp. discriminate.
    - intros Hp. discriminate.
    - exists rs, s', a', g'. split; [exact (Steps_run _ _ _ _ _ _ HS)|]. split; [exact HS|]. split; assumption.
  Qed.
End Boot.

(** * What a failed request may change *)
(** a request that is answered with an error changes no translation of any address space - except the two region
    operations, which keep the pages they mapped before the allocator failed (and MapRegion keeps the reservation);
    the active root, the set of address spaces and the guard never change on failure *)
Lemma astep_failure o r a a' :
  AStep o r a a' -> fst r <> 0 ->
  aact a' = aact a /\ aroots a' = aroots a /\ aprot a' = aprot a /\
  match o with
  | QMapRegion f sz fl =>
      match reserve_spec (alast a) sz with
      | Some (a0, _) => exists j, (j < N.to_nat (ceil_pages sz))%nat /\ a' = a_range (set_alast a a0) (aact a) (a0 / 4096) f fl j
      | None => a' = a
      end
  | QIdMapRegion f sz fl => exists j, (j < N.to_nat (ceil_pages sz))%nat /\ a' = a_range a (aact a) f f fl j
  | _ => forall R k, am a' R k = am a R k
  end.
Proof.
  intros HA Hr.
  assert (MapS: forall R p f fl x, AMapStep a R p f fl r x ->
                aact x = aact a /\ aroots x = aroots a /\ aprot x = aprot a /\ forall R' k, am x R' k = am a R' k).
  { intros R p f fl x H. unfold AMapStep in H. destruct (R =? aact a).
    - destruct (aguard a f fl); [destruct H as (_ & ->); repeat split|].
      destruct H as [(-> & _) | (_ & ->)]; [exfalso; apply Hr; reflexivity | repeat split].
    - destruct H as [(-> & _) | [(_ & _ & ->) | (_ & _ & ->)]]; [exfalso; apply Hr; reflexivity | repeat split | repeat split]. }
  assert (UnmapS: forall R p x, AUnmapStep a R p r x ->
                aact x = aact a /\ aroots x = aroots a /\ aprot x = aprot a /\ forall R' k, am x R' k = am a R' k).
  { intros R p x H. unfold AUnmapStep in H. destruct (R =? aact a).
    - destruct H as [(-> & _) | (_ & -> & _)]; [exfalso; apply Hr; reflexivity | repeat split].
    - destruct H as [(-> & _) | (_ & _ & ->)]; [exfalso; apply Hr; reflexivity | repeat split]. }
  destruct o as [p f fl | p | va | f | f sz fl | f sz fl | k F | k p f fl | k p | k |]; cbn [AStep] in HA.
  - exact (MapS _ _ _ _ _ HA).
  - exact (UnmapS _ _ _ HA).
  - destruct HA as (_ & ->). repeat split.
  - destruct HA as [(_ & _ & ->) | [(-> & _) | (_ & _ & ->)]]; [repeat split | exfalso; apply Hr; reflexivity | repeat split].
  - destruct (reserve_spec (alast a) sz) as [[a0 len]|]; [|destruct HA as (_ & ->); repeat split].
    destruct HA as (j & -> & [(-> & _) | (_ & Hj)]); [exfalso; apply Hr; reflexivity|].
    destruct (a_range_frame fl (aact a) j (set_alast a a0) (a0 / 4096) f) as (I1 & I2 & _).
    split; [exact (proj1 (a_range_act _ _ _ _ _ _))|]. split; [exact I1|]. split; [exact I2|]. exists j. split; [exact Hj | reflexivity].
  - destruct HA as (j & -> & [(-> & _) | (_ & Hj)]); [exfalso; apply Hr; reflexivity|].
    destruct (a_range_frame fl (aact a) j a f f) as (I1 & I2 & _).
    split; [exact (proj1 (a_range_act _ _ _ _ _ _))|]. split; [exact I1|]. split; [exact I2|]. exists j. split; [exact Hj | reflexivity].
  - destruct HA as [(-> & _) | (_ & ->)]; [exfalso; apply Hr; reflexivity | repeat split].
  - destruct (aslot a k); [exact (MapS _ _ _ _ _ HA) | contradiction].
  - destruct (aslot a k); [exact (UnmapS _ _ _ HA) | contradiction].
  - destruct (aslot a k); [|contradiction]. destruct HA as (-> & _). exfalso; apply Hr; reflexivity.
  - destruct HA as [(_ & ->) | (F & _ & _ & _ & [(-> & _) | (_ & ->)])]; [repeat split | exfalso; apply Hr; reflexivity | repeat split].
Qed.

Lemma mrange_ext fl : forall n m1 m2 p f, (forall k, m1 k = m2 k) -> forall k, mrange m1 p f fl n k = mrange m2 p f fl n k.
Proof.
  induction n as [|n IH]; intros m1 m2 p f He k; [exact (He k)|]. cbn [mrange]. apply IH.
  intros k'. unfold aupd. destruct (list_eq_dec N.eq_dec k' (ixs p)); [reflexivity | apply He].
Qed.

Lemma a_range_am fl R : N.testbit fl 0 = true -> forall j a p0 f0 R' k,
  am (a_range a R p0 f0 fl j) R' k = if R' =? R then mrange (am a R) p0 f0 fl j k else am a R' k.
Proof.
  intros HP. induction j as [|j IH]; intros a p0 f0 R' k; cbn [a_range mrange].
  - destruct (N.eqb_spec R' R) as [->|]; reflexivity.
  - rewrite IH. unfold a_map. cbn [am set_tlb set_am]. destruct (N.eqb_spec R' R) as [->|Hne]; [|reflexivity].
    rewrite N.eqb_refl. apply mrange_ext. intros k'. unfold leafv. rewrite HP. reflexivity.
Qed.
