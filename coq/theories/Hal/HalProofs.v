(** Proofs for C16: the model of device bring-up (Hal/Model.v) refines the sink-agnostic
    description Hal/Spec.v, with the early ring buffer handing over exactly its newest bytes. *)
From Coq Require Import NArith ZArith List Bool Lia Permutation Sorted.
From Coq Require Import ZifyBool ZifyN ZifyNat.
From FF Require Import Lib.Word Gen.Consts_kfmt Gen.Hal_strings Kfmt.Fmt Kfmt.FmtSpec Kfmt.FmtProofs Kfmt.FmtScanProofs
  Kfmt.Ring Kfmt.RingProofs Kfmt.Prefix Kfmt.PrefixProofs Hal.Model Hal.Spec.
Import ListNotations.
Local Open Scope N_scope.

(** ---- observers of the trace, one event at a time: each is a [flat_map] over the trace, oldest event first ---- *)
Lemma flat_map_rev_cons {A B} (f : A -> list B) e tr : flat_map f (rev (e :: tr)) = flat_map f (rev tr) ++ f e.
Proof. cbn [rev]. rewrite flat_map_app. cbn [flat_map]. now rewrite app_nil_r. Qed.

Lemma probes_cons e tr : probes (e :: tr) = probes tr ++ match e with EvProbe d => [d] | _ => [] end.
Proof. apply flat_map_rev_cons. Qed.
Lemma inits_cons e tr : inits (e :: tr) = inits tr ++ match e with EvInit d => [d] | _ => [] end.
Proof. apply flat_map_rev_cons. Qed.
Lemma attaches_cons e tr : attaches (e :: tr) = attaches tr ++ match e with EvAttach t c => [(t, c)] | _ => [] end.
Proof. apply flat_map_rev_cons. Qed.
Lemma states_cons e tr : states (e :: tr) = states tr ++ match e with EvSetState t s => [(t, s)] | _ => [] end.
Proof. apply flat_map_rev_cons. Qed.
Lemma tty_bytes_cons t e tr :
  tty_bytes t (e :: tr) = tty_bytes t tr ++ match e with EvWrite t' b => if t' =? t then b else [] | _ => [] end.
Proof. apply flat_map_rev_cons. Qed.
Lemma other_cons o e tr :
  other_tty_bytes o (e :: tr) = other_tty_bytes o tr ++
    match e with
    | EvWrite t' b => match o with Some t0 => if t' =? t0 then [] else b | None => b end
    | _ => [] end.
Proof. apply flat_map_rev_cons. Qed.

Lemma no_bytes_tty tr t : other_tty_bytes None tr = [] -> tty_bytes t tr = [] /\ other_tty_bytes (Some t) tr = [].
Proof.
  unfold other_tty_bytes, tty_bytes. induction (rev tr) as [|e l IH]; intros H; [split; reflexivity|].
  cbn [flat_map] in *. apply app_eq_nil in H. destruct H as [H1 H2]. destruct (IH H2) as [I1 I2].
  rewrite I1, I2. destruct e; try (split; reflexivity). subst bytes. destruct (t0 =? t); split; reflexivity.
Qed.

(** ---- the refinement relation ---- *)
Definition R (st : hal) (a : abs) : Prop :=
  valid (h_ring st) /\ length (h_numbuf st) = buf_len /\ h_numbuf st = a_numbuf a /\
  h_console st = a_console a /\ h_tty st = a_tty a /\ h_active st = a_active a /\
  match a_console a, a_tty a with
  | Some c, Some t =>
      h_sink st = STTY t /\ contents (h_ring st) = [] /\
      tty_bytes t (h_trace st) = lastn capacity (a_early a) ++ a_later a /\
      other_tty_bytes (Some t) (h_trace st) = [] /\
      attaches (h_trace st) = [(t, c)] /\ states (h_trace st) = [(t, 1)]
  | _, _ =>
      h_sink st = SRing /\ contents (h_ring st) = lastn capacity (a_early a) /\ a_later a = [] /\
      other_tty_bytes None (h_trace st) = [] /\ attaches (h_trace st) = [] /\ states (h_trace st) = []
  end.

Lemma R_console st a : R st a -> h_console st = a_console a.
Proof. intros H. apply H. Qed.
Lemma R_tty st a : R st a -> h_tty st = a_tty a.
Proof. intros H. apply H. Qed.
Lemma R_active st a : R st a -> h_active st = a_active a.
Proof. intros H. apply H. Qed.
Lemma R_sink st a : R st a ->
  match a_console a, a_tty a with
  | Some c, Some t =>
      h_sink st = STTY t /\ contents (h_ring st) = [] /\
      tty_bytes t (h_trace st) = lastn capacity (a_early a) ++ a_later a /\
      other_tty_bytes (Some t) (h_trace st) = [] /\
      attaches (h_trace st) = [(t, c)] /\ states (h_trace st) = [(t, 1)]
  | _, _ =>
      h_sink st = SRing /\ contents (h_ring st) = lastn capacity (a_early a) /\ a_later a = [] /\
      other_tty_bytes None (h_trace st) = [] /\ attaches (h_trace st) = [] /\ states (h_trace st) = []
  end.
Proof. intros H. apply H. Qed.

(** calls on drivers are only added by probe_one itself *)
Definition same_calls (st st' : hal) : Prop :=
  probes (h_trace st') = probes (h_trace st) /\ inits (h_trace st') = inits (h_trace st).

Lemma same_calls_refl st : same_calls st st. Proof. split; reflexivity. Qed.
Lemma same_calls_trans a b c : same_calls a b -> same_calls b c -> same_calls a c.
Proof. intros [A1 A2] [B1 B2]. split; congruence. Qed.

Lemma deliver_tty t cs st :
  exists st', deliver (STTY t) cs st = Ok st' /\
    h_ring st' = h_ring st /\ h_sink st' = h_sink st /\ h_console st' = h_console st /\ h_tty st' = h_tty st /\
    h_active st' = h_active st /\ h_numbuf st' = h_numbuf st /\ same_calls st st' /\
    tty_bytes t (h_trace st') = tty_bytes t (h_trace st) ++ concat cs /\
    other_tty_bytes (Some t) (h_trace st') = other_tty_bytes (Some t) (h_trace st) /\
    attaches (h_trace st') = attaches (h_trace st) /\ states (h_trace st') = states (h_trace st).
Proof.
  unfold deliver, same_calls. destruct (concat cs) as [|x b]; eexists; (split; [reflexivity|]).
  - rewrite app_nil_r. repeat split.
  - cbn [log_event h_ring h_sink h_console h_tty h_active h_numbuf h_trace].
    rewrite probes_cons, inits_cons, tty_bytes_cons, other_cons, attaches_cons, states_cons, N.eqb_refl, !app_nil_r.
    repeat split.
Qed.

Lemma deliver_R st a cs : R st a ->
  exists st', deliver (h_sink st) cs st = Ok st' /\ R st' (abs_log a (concat cs)) /\ same_calls st st'.
Proof.
  intros (Hv & Hl & Hnb & Hc & Ht & Hact & Hm).
  unfold abs_log, linked.
  destruct (a_console a) as [c|] eqn:Ec; destruct (a_tty a) as [t|] eqn:Et; cbn [is_some andb].
  1:{ (* console and terminal are linked: the bytes go to the terminal *)
    destruct Hm as (Hs & Hcont & Hb & Ho & Hat & Hst). rewrite Hs.
    destruct (deliver_tty t cs st)
      as (st' & E & Fring & Fsink & Fcons & Ftty & Fact & Fnb & Fcalls & Fbytes & Fother & Fatt & Fstates).
    exists st'. split; [exact E|]. split; [|exact Fcalls].
    unfold R. cbn [a_console a_tty a_active a_early a_later a_numbuf].
    rewrite ?Ec, ?Et, Fring, Fsink, Fcons, Ftty, Fact, Fnb, Fbytes, Fother, Fatt, Fstates, Hb, app_assoc. tauto. }
  (* no console or no terminal yet: the bytes go to the ring *)
  all: destruct Hm as (Hs & Hcont & Hlat & Ho & Hat & Hst); rewrite Hs; cbn [deliver].
  all: destruct (write_spec (concat cs) (h_ring st) Hv) as [rb [Ew [Hv' Hc']]]; rewrite Ew; cbn [bind].
  all: eexists; split; [reflexivity|]; split; [|split; reflexivity].
  all: unfold R; cbn [set_ring h_ring h_numbuf h_console h_tty h_active h_sink h_trace a_console a_tty a_active a_early a_later a_numbuf].
  all: rewrite ?Ec, ?Et; repeat split; try assumption; try (destruct Hv'; assumption).
  all: rewrite Hc', Hcont; apply lastn_lastn_app.
Qed.

Lemma R_numbuf st a nb : R st a -> length nb = buf_len -> R (set_numbuf st nb) (abs_numbuf a nb).
Proof.
  intros (Hv & Hl & Hnb & Hc & Ht & Hact & Hm) Hlen. unfold R.
  cbn [set_numbuf abs_numbuf h_ring h_numbuf h_console h_tty h_active h_sink h_trace a_console a_tty a_active a_early a_later a_numbuf].
  repeat split; try assumption; try (destruct Hv; assumption).
Qed.

Lemma fprintf_to_R format args st a : R st a ->
  exists cs nb, fprintf_to format args st = Ok (cs, set_numbuf st nb) /\
                abs_fprintf format args a = Ok (cs, abs_numbuf a nb) /\ R (set_numbuf st nb) (abs_numbuf a nb).
Proof.
  intros HR. pose proof HR as (Hv & Hl & Hnb & _).
  destruct (fprintf_total format args (h_numbuf st) Hl) as [r [Er Hr]].
  exists (fst r), (snd r). unfold fprintf_to, abs_fprintf. rewrite <- Hnb, Er. cbn [bind].
  split; [reflexivity|]. split; [reflexivity|]. apply R_numbuf; assumption.
Qed.

Lemma printf_R format args st a : R st a ->
  exists st' a', printf format args st = Ok st' /\ abs_printf format args a = Ok a' /\ R st' a' /\ same_calls st st'.
Proof.
  intros HR. destruct (fprintf_to_R format args st a HR) as [cs [nb [E1 [E2 HR']]]].
  unfold printf, abs_printf. rewrite E1, E2. cbn [bind fst snd].
  destruct (deliver_R _ _ cs HR') as [st' [Ed [HR'' Hs]]].
  exists st', (abs_log (abs_numbuf a nb) (concat cs)). split; [exact Ed|]. split; [reflexivity|]. split; [exact HR''|].
  destruct Hs as [S1 S2]. split; [exact S1|exact S2].
Qed.

(** ---- the hand-over ---- *)
Lemma link_spec st t c early :
  valid (h_ring st) -> h_tty st = Some t -> h_console st = Some c ->
  contents (h_ring st) = early -> other_tty_bytes None (h_trace st) = [] ->
  attaches (h_trace st) = [] -> states (h_trace st) = [] ->
  exists st', link st = Ok st' /\
    valid (h_ring st') /\ contents (h_ring st') = [] /\ h_sink st' = STTY t /\
    h_tty st' = Some t /\ h_console st' = Some c /\ h_active st' = h_active st /\ h_numbuf st' = h_numbuf st /\
    tty_bytes t (h_trace st') = early /\ other_tty_bytes (Some t) (h_trace st') = [] /\
    attaches (h_trace st') = [(t, c)] /\ states (h_trace st') = [(t, 1)] /\ same_calls st st'.
Proof.
  intros Hv Ht Hc Hcont Ho Hat Hst. unfold link. rewrite Ht, Hc.
  unfold set_output_sink. cbn [set_sink log_event h_ring].
  destruct (drain_spec (h_ring st) Hv) as [cs [rb [Ed [Hcs [Hv' [He _]]]]]].
  rewrite Ed. cbn [bind fst snd].
  destruct (no_bytes_tty (h_trace st) t Ho) as [Hb1 Hb2].
  match goal with |- context [deliver (STTY t) cs ?s1] =>
    destruct (deliver_tty t cs s1)
      as (st2 & E & Fring & Fsink & Fcons & Ftty & Fact & Fnb & (Fprobes & Finits) & Fbytes & Fother & Fatt & Fstates) end.
  rewrite E. cbn [bind]. eexists. split; [reflexivity|]. unfold same_calls in *.
  cbn [log_event h_ring h_sink h_tty h_console h_active h_numbuf h_trace].
  rewrite probes_cons, inits_cons, tty_bytes_cons, other_cons, attaches_cons, states_cons.
  rewrite Fring, Fsink, Fcons, Ftty, Fact, Fnb, Fprobes, Finits, Fbytes, Fother, Fatt, Fstates.
  cbn [set_ring set_sink log_event h_ring h_sink h_tty h_console h_active h_numbuf h_trace].
  rewrite probes_cons, inits_cons, tty_bytes_cons, other_cons, attaches_cons, states_cons, Hb1, Hb2, Hat, Hst, Hcs, Hcont.
  cbn [app]. rewrite !app_nil_r. repeat split; try assumption; try reflexivity; destruct Hv'; assumption.
Qed.

Lemma console_setup_facts id p st :
  let st' := console_setup id p st in
  h_ring st' = h_ring st /\ h_sink st' = h_sink st /\ h_console st' = h_console st /\ h_tty st' = h_tty st /\
  h_active st' = h_active st /\ h_numbuf st' = h_numbuf st /\ same_calls st st' /\
  (forall o, other_tty_bytes o (h_trace st') = other_tty_bytes o (h_trace st)) /\
  attaches (h_trace st') = attaches (h_trace st) /\ states (h_trace st') = states (h_trace st).
Proof.
  unfold console_setup, same_calls.
  destruct (p_logo p && negb (h_logo_off st)); destruct (p_font p);
    cbn [log_event h_ring h_sink h_console h_tty h_active h_numbuf h_trace];
    repeat split; try reflexivity; intros;
    rewrite ?probes_cons, ?inits_cons, ?other_cons, ?attaches_cons, ?states_cons; cbn [app]; rewrite ?app_nil_r; reflexivity.
Qed.

Lemma init_ok_R id p st a : R st a ->
  exists st', (st2 <- on_driver_init id p st ;; Ok (set_active st2 (h_active st2 ++ [id]))) = Ok st' /\
              R st' (abs_init_ok id (p_kind p) a) /\ same_calls st st'.
Proof.
  intros (Hv & Hl & Hnb & Hc & Ht & Hact & Hm).
  assert (Hsame : forall a', a_console a' = a_console a -> a_tty a' = a_tty a -> a_early a' = a_early a ->
            a_later a' = a_later a -> a_numbuf a' = a_numbuf a -> a_active a' = a_active a ++ [id] ->
            R (set_active st (h_active st ++ [id])) a').
  { intros a' E1 E2 E3 E4 E5 E6. unfold R.
    cbn [set_active h_ring h_numbuf h_console h_tty h_active h_sink h_trace].
    rewrite E1, E2, E3, E4, E5, E6, Hact. repeat split; try assumption; try (destruct Hv; assumption). }
  unfold on_driver_init, abs_init_ok. destruct (p_kind p).
  - (* console *)
    rewrite Hc. destruct (a_console a) as [c|] eqn:Ec.
    + cbn [bind]. eexists. split; [reflexivity|]. split; [|split; reflexivity]. apply Hsame; cbn; congruence.
    + destruct Hm as (Hs & Hcont & Hlat & Ho & Hat & Hst).
      destruct (console_setup_facts id p (set_console st (Some id))) as (Fring & Fsink & Fcons & Ftty & Fact & Fnb & Fcalls & Fother & Fatt & Fstates).
      set (stc := console_setup id p (set_console st (Some id))) in *.
      cbn [set_console h_ring h_sink h_console h_tty h_active h_numbuf h_trace] in Fring, Fsink, Fcons, Ftty, Fact, Fnb, Fother, Fatt, Fstates.
      assert (Fcalls' : same_calls st stc) by exact Fcalls.
      rewrite Ftty, Ht. destruct (a_tty a) as [t|] eqn:Et.
      * assert (Hvc : valid (h_ring stc)) by (rewrite Fring; exact Hv).
        assert (Htc : h_tty stc = Some t) by (rewrite Ftty; exact Ht).
        assert (Hcc : contents (h_ring stc) = lastn capacity (a_early a)) by (rewrite Fring; exact Hcont).
        assert (Hoc : other_tty_bytes None (h_trace stc) = []) by (rewrite Fother; exact Ho).
        assert (Hatc : attaches (h_trace stc) = []) by (rewrite Fatt; exact Hat).
        assert (Hstc : states (h_trace stc) = []) by (rewrite Fstates; exact Hst).
        destruct (link_spec stc t id (lastn capacity (a_early a)) Hvc Htc Fcons Hcc Hoc Hatc Hstc)
          as [st' (El & Hv' & Hc' & Hs' & Ht' & Hco' & Ha' & Hn' & Hb' & Ho' & Hat' & Hst' & Hsc')].
        rewrite El. cbn [bind]. eexists. split; [reflexivity|]. split.
        -- unfold R. cbn [set_active h_ring h_numbuf h_console h_tty h_active h_sink h_trace
                          a_console a_tty a_active a_early a_later a_numbuf] in *.
           rewrite Hlat, app_nil_r, Ha', Hn', Fact, Fnb.
           repeat split; try assumption; try (destruct Hv'; assumption); congruence.
        -- eapply same_calls_trans; [exact Fcalls'|]. destruct Hsc' as [S1 S2]. split; [exact S1|exact S2].
      * cbn [bind]. eexists. split; [reflexivity|]. split.
        -- unfold R. cbn [set_active h_ring h_numbuf h_console h_tty h_active h_sink h_trace
                          a_console a_tty a_active a_early a_later a_numbuf].
           rewrite Fring, Fsink, Fcons, Ftty, Fact, Fnb, Fother, Fatt, Fstates.
           repeat split; try assumption; try (destruct Hv; assumption); congruence.
        -- destruct Fcalls' as [S1 S2]. split; [exact S1|exact S2].
  - (* terminal *)
    rewrite Ht. destruct (a_tty a) as [t|] eqn:Et.
    + cbn [bind]. eexists. split; [reflexivity|]. split; [|split; reflexivity]. apply Hsame; cbn; congruence.
    + assert (Hm' : h_sink st = SRing /\ contents (h_ring st) = lastn capacity (a_early a) /\ a_later a = [] /\
                    other_tty_bytes None (h_trace st) = [] /\ attaches (h_trace st) = [] /\ states (h_trace st) = [])
        by (destruct (a_console a); exact Hm).
      destruct Hm' as (Hs & Hcont & Hlat & Ho & Hat & Hst).
      cbn [set_tty h_console]. rewrite Hc. destruct (a_console a) as [c|] eqn:Ec.
      * destruct (link_spec (set_tty st (Some id)) id c (lastn capacity (a_early a)) Hv eq_refl Hc Hcont Ho Hat Hst)
          as [st' (El & Hv' & Hc' & Hs' & Ht' & Hco' & Ha' & Hn' & Hb' & Ho' & Hat' & Hst' & Hsc')].
        rewrite El. cbn [bind]. eexists. split; [reflexivity|]. split.
        -- unfold R. cbn [set_active set_tty h_ring h_numbuf h_console h_tty h_active h_sink h_trace
                          a_console a_tty a_active a_early a_later a_numbuf] in *.
           rewrite Hlat, app_nil_r, Ha', Hn'. cbn [set_tty h_active h_numbuf].
           repeat split; try assumption; try (destruct Hv'; assumption); congruence.
        -- exact Hsc'.
      * cbn [bind]. eexists. split; [reflexivity|]. split; [|split; reflexivity].
        unfold R. cbn [set_active set_tty h_ring h_numbuf h_console h_tty h_active h_sink h_trace
                       a_console a_tty a_active a_early a_later a_numbuf].
        repeat split; try assumption; try (destruct Hv; assumption); congruence.
  - cbn [bind]. eexists. split; [reflexivity|]. split; [|split; reflexivity]. apply Hsame; reflexivity.
Qed.

Lemma deliver_sink s cs st st' : deliver s cs st = Ok st' -> h_sink st' = h_sink st.
Proof.
  unfold deliver. destruct s.
  - destruct (ring_write (h_ring st) (concat cs)); cbn [bind]; intros H; inversion H; reflexivity.
  - destruct (concat cs); intros H; inversion H; reflexivity.
Qed.

Lemma R_call st a e : (match e with EvProbe _ | EvInit _ | EvSetLogo _ | EvSetFont _ => True | _ => False end) -> R st a -> R (log_event st e) a.
Proof.
  intros He (Hv & Hl & Hnb & Hc & Ht & Hact & Hm). unfold R.
  cbn [log_event h_ring h_numbuf h_console h_tty h_active h_sink h_trace].
  repeat split; try assumption; try (destruct Hv; assumption).
  assert (Ht1 : forall t, tty_bytes t (e :: h_trace st) = tty_bytes t (h_trace st))
    by (intros t; rewrite tty_bytes_cons; destruct e; try contradiction; apply app_nil_r).
  assert (Ht2 : forall o, other_tty_bytes o (e :: h_trace st) = other_tty_bytes o (h_trace st))
    by (intros o; rewrite other_cons; destruct e; try contradiction; apply app_nil_r).
  assert (Ht3 : attaches (e :: h_trace st) = attaches (h_trace st))
    by (rewrite attaches_cons; destruct e; try contradiction; apply app_nil_r).
  assert (Ht4 : states (e :: h_trace st) = states (h_trace st))
    by (rewrite states_cons; destruct e; try contradiction; apply app_nil_r).
  destruct (a_console a), (a_tty a); rewrite ?Ht1, !Ht2, Ht3, Ht4; exact Hm.
Qed.

Lemma probe_one_R d st a bap : R st a ->
  exists st' a' bap', probe_one d st bap = Ok (st', bap') /\ abs_probe_one d a bap = Ok (a', bap') /\ R st' a' /\
    probes (h_trace st') = probes (h_trace st) ++ [d_id d] /\
    inits (h_trace st') = inits (h_trace st) ++ (match d_probe d with Some _ => [d_id d] | None => [] end).
Proof.
  intros HR. unfold probe_one, abs_probe_one.
  pose proof (R_call st a (EvProbe (d_id d)) I HR) as HR1.
  set (st1 := log_event st (EvProbe (d_id d))) in *.
  assert (Hp1 : probes (h_trace st1) = probes (h_trace st) ++ [d_id d]) by (unfold st1; cbn [log_event h_trace]; apply probes_cons).
  assert (Hi1 : inits (h_trace st1) = inits (h_trace st)) by (unfold st1; cbn [log_event h_trace]; rewrite inits_cons; apply app_nil_r).
  destruct (d_probe d) as [p|].
  2:{ exists st1, a, bap. split; [reflexivity|]. split; [reflexivity|]. split; [exact HR1|]. split; [exact Hp1|]. rewrite app_nil_r. exact Hi1. }
  destruct (fprintf_to_R hal_prefixFmt [AStr (p_name p); AInt U16 (p_major p); AInt U16 (p_minor p); AInt U16 (p_patch p)] st1 a HR1)
    as [cs [nb [E1 [E2 HR2]]]].
  rewrite E1, E2. cbn [bind fst snd].
  destruct (prefix_writes (concat cs) bap (p_log p)) as [o1 bap1] eqn:Ew1.
  pose proof (R_call _ _ (EvInit (d_id d)) I HR2) as HR3.
  set (st3 := log_event (set_numbuf st1 nb) (EvInit (d_id d))) in *.
  assert (Hp3 : probes (h_trace st3) = probes (h_trace st) ++ [d_id d])
    by (unfold st3; cbn [log_event set_numbuf h_trace]; rewrite probes_cons, app_nil_r; exact Hp1).
  assert (Hi3 : inits (h_trace st3) = inits (h_trace st) ++ [d_id d])
    by (unfold st3; cbn [log_event set_numbuf h_trace]; rewrite inits_cons; f_equal; exact Hi1).
  destruct (deliver_R st3 _ o1 HR3) as [st4 [Ed4 [HR4 [Sp4 Si4]]]].
  change (h_sink (set_numbuf st1 nb)) with (h_sink st3). rewrite Ed4. cbn [bind].
  pose proof (deliver_sink _ _ _ _ Ed4) as Hsk4.
  destruct (p_init_err p) as [msg|].
  - destruct (fprintf_to_R hal_failFmt [AStr msg] st4 _ HR4) as [cs2 [nb2 [F1 [F2 HR5]]]].
    rewrite F1, F2. cbn [bind fst snd].
    destruct (prefix_writes (concat cs) bap1 cs2) as [o2 bap2] eqn:Ew2.
    destruct (deliver_R (set_numbuf st4 nb2) _ o2 HR5) as [st6 [Ed6 [HR6 [Sp6 Si6]]]].
    change (h_sink (set_numbuf st4 nb2)) with (h_sink st4) in Ed6. rewrite Hsk4 in Ed6. rewrite Ed6. cbn [bind].
    eexists _, _, _. split; [reflexivity|]. split; [reflexivity|]. split; [exact HR6|].
    cbn [set_numbuf h_trace] in Sp6, Si6. split; congruence.
  - destruct (fprintf_to_R hal_okFmt [] st4 _ HR4) as [cs2 [nb2 [F1 [F2 HR5]]]].
    rewrite F1, F2. cbn [bind fst snd].
    destruct (prefix_writes (concat cs) bap1 cs2) as [o2 bap2] eqn:Ew2.
    destruct (deliver_R (set_numbuf st4 nb2) _ o2 HR5) as [st6 [Ed6 [HR6 [Sp6 Si6]]]].
    change (h_sink (set_numbuf st4 nb2)) with (h_sink st4) in Ed6. rewrite Hsk4 in Ed6. rewrite Ed6. cbn [bind].
    destruct (init_ok_R (d_id d) p st6 _ HR6) as [st7 [E7 [HR7 [Sp7 Si7]]]].
    destruct (on_driver_init (d_id d) p st6) as [st6'| |] eqn:Eo; cbn [bind] in E7; try discriminate.
    inversion E7; subst st7. cbn [bind].
    eexists _, _, _. split; [reflexivity|]. split; [reflexivity|]. split; [exact HR7|].
    cbn [set_numbuf h_trace] in Sp6, Si6. split; congruence.
Qed.

Lemma probe_all_R ds : forall st a bap, R st a ->
  exists st' a', probe_all ds st bap = Ok st' /\ abs_probe_all ds a bap = Ok a' /\ R st' a' /\
    probes (h_trace st') = probes (h_trace st) ++ map d_id ds /\
    inits (h_trace st') = inits (h_trace st) ++ map d_id (filter (fun d => is_some (d_probe d)) ds).
Proof.
  induction ds as [|d ds IH]; intros st a bap HR.
  - exists st, a. cbn [probe_all abs_probe_all map filter]. rewrite !app_nil_r. auto.
  - destruct (probe_one_R d st a bap HR) as [st1 [a1 [bap1 [E1 [E2 [HR1 [Hp1 Hi1]]]]]]].
    destruct (IH st1 a1 bap1 HR1) as [st2 [a2 [F1 [F2 [HR2 [Hp2 Hi2]]]]]].
    exists st2, a2. cbn [probe_all abs_probe_all]. rewrite E1, E2. cbn [bind fst snd].
    split; [exact F1|]. split; [exact F2|]. split; [exact HR2|]. split.
    + rewrite Hp2, Hp1, <- app_assoc. reflexivity.
    + rewrite Hi2, Hi1, <- app_assoc. cbn [filter map]. destruct (d_probe d); reflexivity.
Qed.

Lemma logops_R os : forall st a, R st a ->
  exists st' a', run_logops os st = Ok st' /\ abs_logops os a = Ok a' /\ R st' a' /\ same_calls st st'.
Proof.
  induction os as [|o os IH]; intros st a HR.
  - exists st, a. split; [reflexivity|]. split; [reflexivity|]. split; [exact HR|apply same_calls_refl].
  - assert (H1 : exists st1 a1, run_logop o st = Ok st1 /\ abs_logop o a = Ok a1 /\ R st1 a1 /\ same_calls st st1).
    { destruct o; apply printf_R; exact HR. }
    destruct H1 as [st1 [a1 [E1 [E2 [HR1 S1]]]]].
    destruct (IH st1 a1 HR1) as [st2 [a2 [F1 [F2 [HR2 S2]]]]].
    exists st2, a2. cbn [run_logops abs_logops]. rewrite E1, E2. cbn [bind].
    split; [exact F1|]. split; [exact F2|]. split; [exact HR2|]. eapply same_calls_trans; eassumption.
Qed.

Lemma scenario_R pre ds post st a : R st a ->
  exists st' a', scenario pre ds post st = Ok st' /\ abs_scenario pre ds post a = Ok a' /\ R st' a' /\
    probes (h_trace st') = probes (h_trace st) ++ map d_id ds /\
    inits (h_trace st') = inits (h_trace st) ++ map d_id (filter (fun d => is_some (d_probe d)) ds).
Proof.
  intros HR. unfold scenario, abs_scenario, detect_hardware.
  destruct (logops_R pre st a HR) as [st1 [a1 [E1 [E2 [HR1 [Sp1 Si1]]]]]].
  destruct (probe_all_R ds st1 a1 0 HR1) as [st2 [a2 [F1 [F2 [HR2 [Hp2 Hi2]]]]]].
  destruct (logops_R post st2 a2 HR2) as [st3 [a3 [G1 [G2 [HR3 [Sp3 Si3]]]]]].
  exists st3, a3. rewrite E1, E2. cbn [bind]. rewrite F1, F2. cbn [bind].
  split; [exact G1|]. split; [exact G2|]. split; [exact HR3|]. split; congruence.
Qed.

Lemma R_init b : R (set_logo_off init_hal b) init_abs.
Proof.
  unfold R, init_hal, init_abs, set_logo_off. cbn. repeat split; try reflexivity.
Qed.

(** ---- who becomes active (facts about the sink-agnostic description) ---- *)
Definition core (a : abs) := (a_console a, a_tty a, a_active a).

Lemma core_log a b : core (abs_log a b) = core a.
Proof. unfold abs_log. destruct (linked a); reflexivity. Qed.

Lemma core_fprintf f args a cs a' : abs_fprintf f args a = Ok (cs, a') -> core a' = core a.
Proof.
  unfold abs_fprintf. destruct (fprintf f args (a_numbuf a)); cbn [bind]; intros H; inversion H. reflexivity.
Qed.

Lemma core_printf f args a a' : abs_printf f args a = Ok a' -> core a' = core a.
Proof.
  unfold abs_printf. destruct (abs_fprintf f args a) as [[cs a1]| |] eqn:E; cbn [bind]; intros H; inversion H.
  cbn [fst snd]. rewrite core_log. eapply core_fprintf. exact E.
Qed.

Lemma core_logops os : forall a a', abs_logops os a = Ok a' -> core a' = core a.
Proof.
  induction os as [|o os IH]; intros a a' H; cbn [abs_logops] in H.
  - inversion H. reflexivity.
  - destruct (abs_logop o a) as [a1| |] eqn:E; cbn [bind] in H; try discriminate.
    rewrite (IH _ _ H). destruct o; eapply core_printf; exact E.
Qed.

Definition keep_first (o : option N) (b : bool) (id : N) : option N :=
  match o with Some c => Some c | None => if b then Some id else None end.

Lemma probe_one_core d a bap a1 bap1 : abs_probe_one d a bap = Ok (a1, bap1) ->
  core a1 = (keep_first (a_console a) (is_console d) (d_id d), keep_first (a_tty a) (is_tty d) (d_id d),
             a_active a ++ (if init_ok d then [d_id d] else [])).
Proof.
  unfold abs_probe_one, is_console, is_tty, init_ok, ok_kind.
  destruct (d_probe d) as [p|].
  2:{ intros H. inversion H. unfold core, keep_first. cbn [is_some]. rewrite app_nil_r.
      destruct (a_console a1), (a_tty a1); reflexivity. }
  destruct (abs_fprintf hal_prefixFmt _ a) as [[cs a2]| |] eqn:E1; cbn [bind]; try discriminate.
  cbn [fst snd]. destruct (prefix_writes (concat cs) bap (p_log p)) as [o1 b1].
  pose proof (core_fprintf _ _ _ _ _ E1) as C1.
  destruct (p_init_err p) as [msg|].
  - destruct (abs_fprintf hal_failFmt _ _) as [[cs2 a3]| |] eqn:E2; cbn [bind]; try discriminate.
    cbn [fst snd]. destruct (prefix_writes (concat cs) b1 cs2) as [o2 b2]. intros H. injection H as Ha Hb. subst a1.
    pose proof (core_fprintf _ _ _ _ _ E2) as C2. rewrite core_log, C2, core_log, C1.
    unfold core, keep_first. cbn [is_some]. rewrite app_nil_r. destruct (a_console a), (a_tty a); reflexivity.
  - destruct (abs_fprintf hal_okFmt _ _) as [[cs2 a3]| |] eqn:E2; cbn [bind]; try discriminate.
    cbn [fst snd]. destruct (prefix_writes (concat cs) b1 cs2) as [o2 b2]. intros H. injection H as Ha Hb. subst a1.
    pose proof (core_fprintf _ _ _ _ _ E2) as C2. rewrite core_log in C2.
    assert (C3 : core (abs_log a3 (concat o2)) = core a) by (rewrite core_log, C2, C1; reflexivity).
    unfold core in C3. inversion C3 as [[K1 K2 K3]].
    unfold abs_init_ok, core, keep_first. cbn [is_some].
    destruct (p_kind p); cbn [a_console a_tty a_active].
    + rewrite K1. destruct (a_console a); cbn [a_console a_tty a_active]; rewrite ?K1, ?K2, ?K3;
        destruct (a_tty a); reflexivity.
    + rewrite K2. destruct (a_tty a); cbn [a_console a_tty a_active]; rewrite ?K1, ?K2, ?K3;
        destruct (a_console a); reflexivity.
    + rewrite K1, K2, K3. destruct (a_console a), (a_tty a); reflexivity.
Qed.

Lemma probe_all_core ds : forall a bap a', abs_probe_all ds a bap = Ok a' ->
  core a' = (match a_console a with Some c => Some c | None => first_id is_console ds end,
             match a_tty a with Some t => Some t | None => first_id is_tty ds end,
             a_active a ++ map d_id (filter init_ok ds)).
Proof.
  induction ds as [|d ds IH]; intros a bap a' H; cbn [abs_probe_all] in H.
  - inversion H. unfold core, first_id. cbn [find filter map]. rewrite app_nil_r.
    destruct (a_console a'), (a_tty a'); reflexivity.
  - destruct (abs_probe_one d a bap) as [[a1 bap1]| |] eqn:E; cbn [bind] in H; try discriminate.
    cbn [fst snd] in H. rewrite (IH _ _ _ H).
    pose proof (probe_one_core _ _ _ _ _ E) as C. unfold core in C. inversion C as [[K1 K2 K3]].
    rewrite K1, K2, K3. unfold keep_first, first_id. cbn [find filter].
    f_equal; [f_equal|].
    + destruct (a_console a); [reflexivity|]. destruct (is_console d); reflexivity.
    + destruct (a_tty a); [reflexivity|]. destruct (is_tty d); reflexivity.
    + rewrite <- app_assoc. destruct (init_ok d); reflexivity.
Qed.

Lemma scenario_core pre ds post a : abs_scenario pre ds post init_abs = Ok a ->
  a_console a = first_id is_console ds /\ a_tty a = first_id is_tty ds /\ a_active a = map d_id (filter init_ok ds).
Proof.
  unfold abs_scenario. intros H.
  destruct (abs_logops pre init_abs) as [a1| |] eqn:E1; cbn [bind] in H; try discriminate.
  destruct (abs_probe_all ds a1 0) as [a2| |] eqn:E2; cbn [bind] in H; try discriminate.
  pose proof (core_logops _ _ _ E1) as C1. pose proof (probe_all_core _ _ _ _ E2) as C2. pose proof (core_logops _ _ _ H) as C3.
  unfold core in *. cbn [init_abs a_console a_tty a_active] in C1. injection C1 as K1 K2 K3.
  rewrite K1, K2, K3 in C2. cbn [app] in C2. rewrite C2 in C3. injection C3 as L1 L2 L3. auto.
Qed.

Lemma d_id_inj ds x d : NoDup (map d_id ds) -> In x ds -> In d ds -> d_id x = d_id d -> x = d.
Proof.
  induction ds as [|y ds IH]; intros Hnd Hx Hd Eid; [destruct Hx|].
  cbn [map] in Hnd. inversion Hnd as [|? ? Hni Hnd']; subst.
  destruct Hd as [->|Hd], Hx as [->|Hx]; auto.
  - exfalso. apply Hni. rewrite <- Eid. apply in_map. exact Hx.
  - exfalso. apply Hni. rewrite Eid. apply in_map. exact Hd.
Qed.

Lemma failed_never_active ds (d : driver) :
  NoDup (map d_id ds) -> In d ds -> init_ok d = false -> ~ In (d_id d) (map d_id (filter init_ok ds)).
Proof.
  induction ds as [|x ds IH]; intros Hnd Hin Hf; [destruct Hin|].
  cbn [map] in Hnd. inversion Hnd as [|? ? Hnotin Hnd']; subst. cbn [filter].
  destruct Hin as [->|Hin].
  - rewrite Hf. intros H. apply Hnotin. apply in_map_iff in H. destruct H as [y [Ey Hy]].
    apply filter_In in Hy. destruct Hy as [Hy _]. rewrite <- Ey. apply in_map. exact Hy.
  - destruct (init_ok x) eqn:Ex.
    + cbn [map]. intros [E|H]; [|exact (IH Hnd' Hin Hf H)].
      apply Hnotin. rewrite E. apply in_map. exact Hin.
    + exact (IH Hnd' Hin Hf).
Qed.

(** ---- the whole bring-up ---- *)
Lemma bringup b pre ds post :
  exists st a,
    scenario pre ds post (set_logo_off init_hal b) = Ok st /\ abs_scenario pre ds post init_abs = Ok a /\ R st a /\
    probes (h_trace st) = map d_id ds /\
    inits (h_trace st) = map d_id (filter (fun d => is_some (d_probe d)) ds) /\
    a_console a = first_id is_console ds /\ a_tty a = first_id is_tty ds /\
    a_active a = map d_id (filter init_ok ds).
Proof.
  destruct (scenario_R pre ds post (set_logo_off init_hal b) init_abs (R_init b)) as [st [a [E1 [E2 [HR [Hp Hi]]]]]].
  exists st, a. split; [exact E1|]. split; [exact E2|]. split; [exact HR|].
  split; [exact Hp|]. split; [exact Hi|]. apply (scenario_core pre ds post a E2).
Qed.

Lemma probe_order :
  forall (logo_off : bool) (registered sorted_list : list driver) (pre post : list logop),
    Permutation registered sorted_list ->
    Sorted (fun a b => (d_order a <= d_order b)%Z) sorted_list ->
    exists st probed,
      scenario pre sorted_list post (set_logo_off init_hal logo_off) = Ok st /\
      probes (h_trace st) = map d_id probed /\
      Permutation registered probed /\
      Sorted (fun a b => (d_order a <= d_order b)%Z) probed /\
      inits (h_trace st) = map d_id (filter (fun d => is_some (d_probe d)) probed).
Proof.
  intros logo_off registered sorted_list pre post Hp Hs.
  destruct (bringup logo_off pre sorted_list post) as [st [a (E1 & _ & _ & Hpr & Hin & _)]].
  exists st, sorted_list. auto.
Qed.

Lemma failed_never_active_full :
  forall (logo_off : bool) (pre : list logop) (sorted_list : list driver) (post : list logop) (st : hal) (d : driver),
    NoDup (map d_id sorted_list) -> In d sorted_list -> init_ok d = false ->
    scenario pre sorted_list post (set_logo_off init_hal logo_off) = Ok st ->
    ~ In (d_id d) (h_active st) /\ h_console st <> Some (d_id d) /\ h_tty st <> Some (d_id d).
Proof.
  intros logo_off pre ds post st d Hnd Hin Hf Hrun.
  destruct (bringup logo_off pre ds post) as [st' [a (E1 & _ & HR & _ & _ & Hc & Ht & Ha)]].
  rewrite Hrun in E1. inversion E1; subst st'.
  rewrite <- (R_console _ _ HR) in Hc. rewrite <- (R_tty _ _ HR) in Ht. rewrite <- (R_active _ _ HR) in Ha.
  assert (Hfirst : forall f, (forall x, f x = true -> init_ok x = true) -> first_id f ds <> Some (d_id d)).
  { intros f Hfx. unfold first_id. destruct (find f ds) as [x|] eqn:Ef; [|discriminate].
    apply find_some in Ef. destruct Ef as [Hx Hfxx]. intros E. inversion E as [Eid].
    assert (x = d) by (apply (d_id_inj ds); assumption).
    subst x. rewrite (Hfx d Hfxx) in Hf. discriminate. }
  split; [rewrite Ha; apply failed_never_active; assumption|]. split.
  - rewrite Hc. apply Hfirst. intros x Hx. unfold is_console, init_ok in *. destruct (ok_kind x); [reflexivity|discriminate].
  - rewrite Ht. apply Hfirst. intros x Hx. unfold is_tty, init_ok in *. destruct (ok_kind x); [reflexivity|discriminate].
Qed.

(** ---- a failed initialisation is reported on the log ---- *)
Lemma abs_log_log a x y : abs_log (abs_log a x) y = abs_log a (x ++ y).
Proof.
  unfold abs_log at 2. unfold abs_log at 2. destruct (linked a) eqn:E.
  - unfold abs_log, linked in *. cbn [a_console a_tty]. unfold linked in E. rewrite E.
    cbn [a_console a_tty a_active a_early a_later a_numbuf]. rewrite app_assoc. reflexivity.
  - unfold abs_log, linked in *. cbn [a_console a_tty]. rewrite E.
    cbn [a_console a_tty a_active a_early a_later a_numbuf]. rewrite app_assoc. reflexivity.
Qed.

Lemma abs_log_numbuf a x nb : abs_numbuf (abs_log a x) nb = abs_log (abs_numbuf a nb) x.
Proof. unfold abs_log, abs_numbuf, linked. cbn [a_console a_tty]. destruct (is_some (a_console a) && is_some (a_tty a)); reflexivity. Qed.

Lemma abs_numbuf_numbuf a n1 n2 : abs_numbuf (abs_numbuf a n1) n2 = abs_numbuf a n2.
Proof. reflexivity. Qed.

Lemma failed_reported (d : driver) (p : probed) (msg : list N) (a : abs) (bap : N) :
  d_probe d = Some p -> p_init_err p = Some msg -> length (a_numbuf a) = N.to_nat kfmt_numFmtBufLen ->
  exists prefix status nb nb1 bap',
    written (fprintf hal_prefixFmt [AStr (p_name p); AInt U16 (p_major p); AInt U16 (p_minor p); AInt U16 (p_patch p)] (a_numbuf a)) = Ok prefix /\
    written (fprintf hal_failFmt [AStr msg] nb1) = Ok status /\
    abs_probe_one d a bap =
      Ok (abs_log (abs_numbuf a nb) (inject prefix (bap =? 0) (concat (p_log p) ++ status)), bap').
Proof.
  intros Hp He Hl.
  destruct (fprintf_total hal_prefixFmt [AStr (p_name p); AInt U16 (p_major p); AInt U16 (p_minor p); AInt U16 (p_patch p)] (a_numbuf a) Hl)
    as [r [Er Hr]].
  destruct (prefix_writes (concat (fst r)) bap (p_log p)) as [o1 b1] eqn:E1.
  destruct (prefix_writes_spec (concat (fst r)) (p_log p) bap) as [P1 P2]. rewrite E1 in P1, P2. cbn [fst snd] in P1, P2.
  destruct (fprintf_total hal_failFmt [AStr msg] (snd r) Hr) as [r2 [Er2 Hr2]].
  destruct (prefix_writes (concat (fst r)) b1 (fst r2)) as [o2 b2] eqn:E2.
  destruct (prefix_writes_spec (concat (fst r)) (fst r2) b1) as [Q1 Q2]. rewrite E2 in Q1, Q2. cbn [fst snd] in Q1, Q2.
  exists (concat (fst r)), (concat (fst r2)), (snd r2), (snd r), b2.
  split; [unfold written; rewrite Er; reflexivity|]. split; [unfold written; rewrite Er2; reflexivity|].
  unfold abs_probe_one, abs_fprintf. rewrite Hp, Er. cbn [bind fst snd]. rewrite E1, He.
  assert (Hnb : a_numbuf (abs_log (abs_numbuf a (snd r)) (concat o1)) = snd r)
    by (unfold abs_log; destruct (linked (abs_numbuf a (snd r))); reflexivity).
  rewrite Hnb, Er2. cbn [bind fst snd]. rewrite E2.
  f_equal. f_equal.
  rewrite abs_log_numbuf, abs_log_log, abs_numbuf_numbuf. f_equal.
  rewrite inject_app, P1, Q1, P2. reflexivity.
Qed.
