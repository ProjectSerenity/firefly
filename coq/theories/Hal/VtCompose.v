(** C16 composed with C17: what the real terminal shows after bring-up.

    The calls bring-up makes on the active terminal, read off the trace of Hal/Model.v
    ([tty_ops]: Write and SetState calls, in order; the AttachTo call is the [attach] of Tty/Vt.v),
    are a history in the sense of C17.  By C17's refinement theorem the terminal model (Tty/Vt.v,
    vt.go with wrap-around and bounds checks) does not panic on it and ends as the reference
    terminal that has received exactly the delivered byte stream, which by [bringup] (Hal/HalProofs.v) is
    newest-[capacity](early log) ++ later log. *)
From Coq Require Import NArith ZArith List Bool Lia.
From FF Require Import Lib.Word Gen.Consts_kfmt Kfmt.Fmt Kfmt.Ring Kfmt.RingProofs Hal.Model Hal.Spec Hal.HalProofs.
From FF Require Tty.Vt Tty.VtSpec Tty.VtProofs.
Import ListNotations.
Local Open Scope N_scope.

Definition ev_ops (t : N) (e : event) : list Vt.op :=
  match e with
  | EvWrite t' b => if t' =? t then [Vt.OWrite b] else []
  | EvSetState t' s => if t' =? t then [Vt.OSetState s] else []
  | _ => []
  end.

(** the Write / SetState calls terminal [t] received, oldest first *)
Definition tty_ops (t : N) (tr : list event) : list Vt.op := flat_map (ev_ops t) (rev tr).

Section Geometry.
  Variables (w h sb tab fg bg : N).

  Lemma ref_ops_bytes (l : list event) (t : N) : forall r,
    fold_left (VtSpec.r_step w h sb tab fg bg) (flat_map (ev_ops t) l) r =
    fold_left (VtSpec.r_byte w h sb tab fg bg)
      (flat_map (fun e => match e with EvWrite t' b => if t' =? t then b else [] | _ => [] end) l) r.
  Proof.
    induction l as [|e l IH]; intros r; [reflexivity|].
    cbn [flat_map]. rewrite !fold_left_app, <- IH. f_equal.
    destruct e; try reflexivity; cbn [ev_ops]; destruct (_ =? t); reflexivity.
  Qed.

  Lemma ops_wf (l : list event) (t : N) :
    Forall (fun b => b < 256) (flat_map (fun e => match e with EvWrite t' b => if t' =? t then b else [] | _ => [] end) l) ->
    Forall (fun p => snd p < 256) (flat_map (fun e => match e with EvSetState t' s => [(t', s)] | _ => [] end) l) ->
    Forall VtSpec.op_wf (flat_map (ev_ops t) l).
  Proof.
    induction l as [|e l IH]; intros Hb Hs; [constructor|].
    cbn [flat_map] in *. apply Forall_app in Hb. destruct Hb as [Hb1 Hb2].
    apply Forall_app in Hs. destruct Hs as [Hs1 Hs2].
    apply Forall_app. split; [|apply IH; assumption].
    destruct e; try constructor; cbn [ev_ops].
    - destruct (t0 =? t); [|constructor]. constructor; [|constructor]. inversion Hs1; subst. assumption.
    - destruct (t0 =? t); [|constructor]. constructor; [|constructor]. exact Hb1.
  Qed.

  (** After any bring-up in which a console and a terminal came up: for every console geometry the
      terminal is attached to (w, h >= 1, the buffer representable in 32 bits), tab width, scrollback
      and default colours, provided the delivered stream consists of bytes, the terminal model run on
      the calls bring-up made does not panic and its contents, viewport and cursor are those of the
      reference terminal after receiving  newest-[capacity](early log) ++ later log. *)
  Lemma bringup_terminal_shows :
    forall (logo_off : bool) (pre : list logop) (sorted_list : list driver) (post : list logop),
      1 <= w -> 1 <= h -> tab <= 255 -> w * (h + sb) * 3 < two32 ->
      exists st a,
        scenario pre sorted_list post (set_logo_off init_hal logo_off) = Ok st /\
        abs_scenario pre sorted_list post init_abs = Ok a /\
        match h_console st, h_tty st with
        | Some c, Some t =>
            Forall (fun b => b < 256) (tty_bytes t (h_trace st)) ->
            exists v0 v,
              Vt.attach (Vt.new_vt tab sb) w h fg bg = Vt.Ok v0 /\
              Vt.run_ops v0 (tty_ops t (h_trace st)) = Vt.Ok v /\
              VtSpec.abs v =
                fold_left (VtSpec.r_byte w h sb tab fg bg) (lastn capacity (a_early a) ++ a_later a)
                          (VtSpec.r_init w h sb fg bg)
        | _, _ => True
        end.
  Proof.
    intros logo_off pre ds post Hw Hh Ht Hsz.
    destruct (bringup logo_off pre ds post) as [st [a (E1 & E2 & HR & _)]].
    exists st, a. split; [exact E1|]. split; [exact E2|]. rewrite (R_console _ _ HR), (R_tty _ _ HR).
    pose proof (R_sink _ _ HR) as Hm.
    destruct (a_console a) as [c|]; [|exact I]. destruct (a_tty a) as [t|]; [|exact I].
    destruct Hm as (_ & _ & Hb & _ & _ & Hst). intros Hbytes.
    assert (WF : Forall VtSpec.op_wf (tty_ops t (h_trace st))).
    { apply ops_wf; [exact Hbytes|]. unfold states in Hst. rewrite Hst. constructor; [cbn; lia|constructor]. }
    destruct (VtProofs.vt_refines_thm w h sb tab fg bg _ Hw Hh Ht Hsz WF) as [v0 [v [A1 [A2 A3]]]].
    exists v0, v. split; [exact A1|]. split; [exact A2|].
    rewrite A3. unfold VtSpec.ref_run, tty_ops. rewrite ref_ops_bytes. fold (tty_bytes t (h_trace st)).
    rewrite Hb. reflexivity.
  Qed.
End Geometry.
