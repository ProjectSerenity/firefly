(** C18 down to the text-mode framebuffer: the terminal model (Tty/Vt.v) driving the model of
    VgaTextConsole (Console/Vga.v, proved to refine Console/Grid.v in Console/VgaProofs.v by the
    C19 development).  Every console call of the terminal's trace is executed by the driver model
    on a 16-bit framebuffer; when the terminal is active every element of the framebuffer is the
    text-mode encoding of the viewport cell it displays. *)
From Coq Require Import NArith ZArith List Bool Lia.
From Coq Require Import ZifyBool ZifyN ZifyNat.
From FF Require Import Lib.Word Gen.Consts_device_video_console.
From FF Require Import Console.Mem Console.Grid Console.Vga Console.VgaProofs.
From FF Require Import Gen.Consts_device_tty Tty.Vt Tty.VtSpec Tty.VtConsSpec Tty.VtProofs Tty.VtCons Tty.VtConsProofs.
Import ListNotations.
Local Open Scope N_scope.

(** the driver executing one console call / a sequence of calls *)
Definition vga_apply (c : vga) (m : fbuf) (k : ccall) : res :=
  match k with
  | CWrite ch f b x y => vga_write c m ch f b x y
  | CFill x y wd ht f b => vga_fill c m x y wd ht f b
  | CScroll d n => vga_scroll c m d n
  end.

Fixpoint vga_apply_calls (c : vga) (m : fbuf) (cs : list ccall) : res :=
  match cs with
  | [] => Mem.Ok m
  | k :: r => match vga_apply c m k with
              | Mem.Ok m' => vga_apply_calls c m' r
              | bad => bad
              end
  end.

(** the 16-bit value that displays a cell: [((bg<<4|fg)<<8)|ch], colours above the palette shown
    in the console's default colour *)
Definition enc (cl : cell) : N :=
  let '(ch, f, b) := cl in cell16 (text_colour vga_defaultBg b) (text_colour vga_defaultFg f) ch.

(** ---- every 16-bit value displays some cell ---- *)
Lemma lor_disjoint a r k : r < 2 ^ k -> N.lor (a * 2 ^ k) r = a * 2 ^ k + r.
Proof.
  intros H.
  assert (L : N.land (a * 2 ^ k) r = 0).
  { apply N.bits_inj_0. intros n. rewrite N.land_spec. destruct (N.lt_ge_cases n k) as [A|A].
    - now rewrite N.mul_pow2_bits_low by assumption.
    - rewrite <- (N.mod_small r (2 ^ k)) by assumption.
      rewrite N.mod_pow2_bits_high by assumption. apply andb_false_r. }
  rewrite <- N.lxor_lor by exact L. symmetry. now apply N.add_nocarry_lxor.
Qed.

Lemma cell16_value b f ch : b < 16 -> f < 16 -> ch < 256 -> cell16 b f ch = b * 4096 + f * 256 + ch.
Proof.
  intros Hb Hf Hc. unfold cell16, attr16.
  rewrite !N.shiftl_mul_pow2. change (2 ^ 4) with 16. change (2 ^ 8) with 256.
  assert (E1 : w16 (b * 16) = b * 16) by (unfold w16, two16; apply N.mod_small; lia). rewrite E1.
  pose proof (lor_disjoint b f 4 ltac:(change (2 ^ 4) with 16; lia)) as L1. change (2 ^ 4) with 16 in L1.
  rewrite L1.
  assert (E2 : w16 ((b * 16 + f) * 256) = (b * 16 + f) * 256) by (unfold w16, two16; apply N.mod_small; lia).
  rewrite E2.
  pose proof (lor_disjoint (b * 16 + f) ch 8 ltac:(change (2 ^ 8) with 256; lia)) as L2. change (2 ^ 8) with 256 in L2.
  rewrite L2. lia.
Qed.

Definition dec (n : N) : cell := (n mod 256, (n / 256) mod 16, n / 4096).

Lemma max_colour : vga_maxColorIndex = 15.
Proof. reflexivity. Qed.

Lemma enc_dec n : n < two16 -> enc (dec n) = n.
Proof.
  intros H. unfold two16 in H. unfold enc, dec, text_colour. rewrite max_colour.
  destruct (N.ltb_spec 15 (n / 4096)); [lia|]. destruct (N.ltb_spec 15 ((n / 256) mod 16)); [lia|].
  rewrite cell16_value by lia. lia.
Qed.

(** ---- the driver refines the abstract console, call by call ---- *)
Definition Rel (c : vga) (m : fbuf) (g : cgrid) : Prop :=
  gw g = Vga.vw c /\ gh g = Vga.vh c /\
  forall x y, 1 <= x <= Vga.vw c -> 1 <= y <= Vga.vh c -> load m (cell_idx c x y) = enc (gcell g x y).

Definition call_ok (k : ccall) : Prop :=
  match k with
  | CWrite _ _ _ x y => x < two32 /\ y < two32
  | CFill _ _ _ _ f b => f <= vga_maxColorIndex /\ b <= vga_maxColorIndex
  | CScroll d n => n < two32 /\ VgaProofs.dir_of d <> None
  end.

Lemma dir_of_same d : VtCons.dir_of d = VgaProofs.dir_of d.
Proof. reflexivity. Qed.

Lemma in_grid_same {A B} (g : grid A) (g' : grid B) x y :
  gw g = gw g' -> gh g = gh g' -> in_grid g x y = in_grid g' x y.
Proof. intros E1 E2. unfold in_grid. now rewrite E1, E2. Qed.

Lemma vga_apply_refines c m g k :
  vga_wf c m -> Rel c m g -> call_ok k ->
  exists m', vga_apply c m k = Mem.Ok m' /\ vga_wf c m' /\ Rel c m' (apply_call (gcell g) g k).
Proof.
  intros Hwf (Gw & Gh & RC) Hk. destruct k as [ch f b x y|x y wd ht f b|d n]; cbn [vga_apply apply_call call_ok] in *.
  - destruct Hk as (Hx & Hy).
    destruct (vga_write_refines c m ch f b x y Hwf Hx Hy) as (m' & E & Hwf' & (D1 & D2 & GE)).
    exists m'. split; [exact E|]. split; [exact Hwf'|].
    destruct (g_write_dims g x y (ch, f, b)) as (A1 & A2).
    split; [congruence|]. split; [congruence|]. intros cx cy Hcx Hcy.
    specialize (GE cx cy). cbn [vga_grid gcell gw gh] in GE.
    rewrite GE by (apply in_grid_spec; cbn [vga_grid gw gh]; lia).
    unfold g_write. rewrite (in_grid_same (vga_grid c m) g x y) by (cbn [vga_grid gw gh]; congruence).
    destruct (in_grid g x y); cbn [gcell vga_grid].
    + destruct ((cx =? x) && (cy =? y)); [reflexivity|]. now apply RC.
    + now apply RC.
  - destruct Hk as (Hf & Hb).
    destruct (vga_fill_refines c m x y wd ht f b Hwf) as (m' & E & Hwf' & (D1 & D2 & GE)).
    exists m'. split; [exact E|]. split; [exact Hwf'|].
    split; [exact Gw|]. split; [exact Gh|]. intros cx cy Hcx Hcy.
    specialize (GE cx cy). cbn [vga_grid gcell gw gh g_fill] in GE.
    rewrite GE by (apply in_grid_spec; cbn [vga_grid gw gh]; lia).
    cbn [g_fill gcell].
    replace (in_fill (vga_grid c m) x y wd ht cx cy) with (in_fill g x y wd ht cx cy)
      by (unfold in_fill; cbn [vga_grid gw gh]; now rewrite Gw, Gh).
    destruct (in_fill g x y wd ht cx cy).
    + unfold enc, text_colour. destruct (N.ltb_spec vga_maxColorIndex b); [lia|].
      destruct (N.ltb_spec vga_maxColorIndex f); [lia|]. reflexivity.
    + now apply RC.
  - destruct Hk as (Hn & Hd). rewrite dir_of_same.
    destruct (VgaProofs.dir_of d) as [dd|] eqn:Ed; [|congruence].
    destruct (vga_scroll_refines c m d dd n Hwf Hn Ed) as (m' & E & Hwf' & (D1 & D2 & GE)).
    exists m'. split; [exact E|]. split; [exact Hwf'|].
    destruct (g_scroll_dims g dd n (gcell g)) as (A1 & A2).
    split; [congruence|]. split; [congruence|]. intros cx cy Hcx Hcy.
    specialize (GE cx cy). cbn [vga_grid gcell gw gh] in GE.
    rewrite GE by (apply in_grid_spec; cbn [vga_grid gw gh]; lia).
    unfold g_scroll, scroll_ok. cbn [vga_grid gh gw gcell]. rewrite Gh.
    destruct ((1 <=? n) && (n <=? Vga.vh c)) eqn:So; cbn [gcell]; [|now apply RC].
    apply andb_true_iff in So as (S1 & S2). apply N.leb_le in S1. apply N.leb_le in S2.
    destruct dd.
    + destruct (N.leb_spec (cy + n) (Vga.vh c)); apply RC; lia.
    + destruct (N.ltb_spec n cy); apply RC; lia.
Qed.

Lemma vga_apply_calls_refines c cs : forall m g,
  vga_wf c m -> Rel c m g -> Forall call_ok cs ->
  exists m', vga_apply_calls c m cs = Mem.Ok m' /\ vga_wf c m' /\ Rel c m' (apply_calls g cs).
Proof.
  induction cs as [|k t IH]; intros m g Hwf HR HF; cbn [vga_apply_calls apply_calls].
  - exists m. auto.
  - inversion HF as [|? ? Hk Ht]; subst.
    destruct (vga_apply_refines c m g k Hwf HR Hk) as (m1 & E1 & Hwf1 & HR1). rewrite E1.
    apply IH; assumption.
Qed.

(** calls of the terminal are acceptable to the driver: coordinates fit 32 bits, the fill colours
    are the console's own default colours *)
Lemma call_in_grid_ok w h k :
  w < two32 -> h < two32 -> call_in_grid w h k ->
  (forall x y wd ht f b, k = CFill x y wd ht f b -> f = vga_defaultFg /\ b = vga_defaultBg) ->
  call_ok k.
Proof.
  intros Hw Hh H HF. destruct k as [ch f b x y|x y wd ht f b|d n]; cbn [call_in_grid call_ok] in *.
  - lia.
  - destruct (HF _ _ _ _ _ _ eq_refl) as (-> & ->). split; discriminate.
  - destruct H as (-> & Hn). split; [lia|]. discriminate.
Qed.

(** ---- the only Fill the terminal ever issues uses its default colours ---- *)
Definition fill_cols (fg bg : N) (k : ccall) : Prop :=
  match k with CFill _ _ _ _ f b => f = fg /\ b = bg | _ => True end.

Section FillCols.
Variables (w h s tab fg bg : N).
Hypothesis Hw : 1 <= w.
Hypothesis Hh : 1 <= h.

Lemma fill_cols_run ops st r : RInv w h s fg bg r -> Forall op_wf ops ->
  Forall (fill_cols fg bg) (e_run w h s tab fg bg st r ops).
Proof.
  intros I WF.
  apply (run_ind w h s tab fg bg Hw Hh (fun _ => True) (fun _ _ cs _ _ => Forall (fill_cols fg bg) cs));
    try exact I; try exact WF; try exact Logic.I.
  - intros. exact Logic.I.
  - constructor.
  - intros st0 r0 c _ _. unfold e_put. destruct (st0 =? _); [|constructor]. destruct c as [[ch f] b]. repeat constructor.
  - intros st0 r0 _. unfold e_lf. destruct (r_y r0 <? h); [constructor|]. destruct (st0 =? _); repeat constructor.
  - intros st0 r0 s' _. destruct (st0 =? s'); [constructor|]. destruct (s' =? tty_StateActive); [|constructor].
    unfold e_redraw. apply Forall_forall. intros k Hk. apply in_flat_map in Hk as (y0 & _ & Hk).
    apply in_map_iff in Hk as (x0 & <- & _). destruct (r_cell r0 x0 y0) as [[ch f] b]. exact Logic.I.
  - intros. apply Forall_app. auto.
Qed.
End FillCols.

(** ---- C18 for the text-mode console, down to the framebuffer ---- *)
Theorem sync_text_thm :
  forall w h sb tab (ops : list op) (m0 : fbuf),
    1 <= w -> 1 <= h -> tab <= 255 -> w * (h + sb) * 3 < two32 -> Forall op_wf ops ->
    vga_wf (mkVga w h) m0 -> (forall i, i < flen m0 -> load m0 i < two16) ->
    exists v0 v m,
      attach (new_vt tab sb) w h vga_defaultFg vga_defaultBg = Ok v0 /\ run_ops v0 ops = Ok v /\
      vga_apply_calls (mkVga w h) m0 (rev (trace v)) = Mem.Ok m /\
      (st v = tty_StateActive ->
       forall x y, 1 <= x <= w -> 1 <= y <= h ->
         load m (cell_idx (mkVga w h) x y) = enc (v_cell v x y)).
Proof.
  intros w h sb tab ops m0 Hw Hh Ht Hsz WF Hwf H16.
  set (c := mkVga w h) in *.
  set (g0 := mkGrid w h (fun x y => dec (load m0 (cell_idx c x y))) : cgrid).
  destruct (boot_sim w h sb tab vga_defaultFg vga_defaultBg Hw Hh Hsz ops WF) as (v0 & v & E0 & E & I & RR & S & T).
  pose proof (w_small w h sb Hw Hh Hsz) as Hw32. pose proof (hs_small w h sb Hw Hh Hsz) as Hh32.
  pose proof (rinv_init w h sb tab vga_defaultFg vga_defaultBg Hw Hh Hsz) as RI0.
  (* the driver accepts every call of the trace *)
  assert (OK : Forall call_ok (rev (trace v))).
  { rewrite T.
    pose proof (in_grid_run w h sb tab vga_defaultFg vga_defaultBg Hw Hh ops tty_newState _ RI0 WF) as IG.
    pose proof (fill_cols_run w h sb tab vga_defaultFg vga_defaultBg Hw Hh ops tty_newState _ RI0 WF) as FC.
    rewrite Forall_forall in *. intros k Hk. apply (call_in_grid_ok w h k); [lia|lia|now apply IG|].
    intros x y wd ht f b ->. exact (FC _ Hk). }
  assert (R0' : Rel c m0 g0).
  { split; [reflexivity|]. split; [reflexivity|]. intros x y Hx Hy. unfold g0. cbn [gcell].
    symmetry. apply enc_dec. apply H16. now apply (cell_idx_lt c m0). }
  destruct (vga_apply_calls_refines c (rev (trace v)) m0 g0 Hwf R0' OK) as (m & Em & Hwfm & (_ & _ & RC)).
  exists v0, v, m. split; [exact E0|]. split; [exact E|]. split; [exact Em|].
  intros Ha x y Hx Hy. rewrite RC by assumption.
  destruct (shows_run w h sb tab vga_defaultFg vga_defaultBg Hw Hh Hsz ops v g0 _ WF I RR S T eq_refl eq_refl
              (apply_calls_rel (rev (trace v)) g0) Ha) as (_ & _ & SC).
  destruct I as ((_ & Gvw & Gvh & _) & _). rewrite SC; [reflexivity|lia|lia].
Qed.
