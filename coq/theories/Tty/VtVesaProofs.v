(** C18 down to framebuffer pixels: the terminal model (Tty/Vt.v) driving the model of
    VesaFbConsole (Console/Vesa.v), using the refinement of Console/Grid.v proved by the C19
    development (Console/VesaGridProofs.v) and its byte-level specifications.

    The lines vacated by a scroll hold arbitrary pixels (not the picture of any cell) until the
    terminal clears them; on the abstract side they are the cell [MARK], which no viewport cell can
    be (its "character" is 256).  The synchronisation lemma behind C18_sync_inv ([shows_run]) holds for every
    junk, in particular for this one. *)
From Coq Require Import NArith ZArith List Bool Lia.
From Coq Require Import ZifyBool ZifyN ZifyNat.
From FF Require Import Lib.Word Gen.Consts_device_video_console.
From FF Require Import Console.Mem Console.Ops Console.Grid Console.Vga Console.VgaProofs Console.Vesa Console.VesaSpec
     Console.VesaProofs Console.VesaFillProofs Console.VesaScrollProofs Console.VesaWriteProofs Console.VesaGridProofs.
From FF Require Import Gen.Consts_device_tty Tty.Vt Tty.VtSpec Tty.VtConsSpec Tty.VtProofs Tty.VtCons Tty.VtConsProofs
     Tty.VtSmall Tty.VtVgaSync Tty.VtVesaSync.
Import ListNotations.
Local Open Scope N_scope.

Definition MARK : cell := (256, 0, 0).
Definition mark_junk : N -> N -> cell := fun _ _ => MARK.

Fixpoint apply_calls_mark (g : cgrid) (cs : list ccall) : cgrid :=
  match cs with
  | [] => g
  | k :: r => apply_calls_mark (apply_call mark_junk g k) r
  end.

Lemma apply_calls_mark_rel cs : forall g, calls_rel g cs (apply_calls_mark g cs).
Proof.
  induction cs as [|k t IH]; intros g; cbn [apply_calls_mark]; [constructor|]. econstructor. apply IH.
Qed.

(** the picture of a cell: colour bytes of pixel (q, r) *)
Definition pixbytes (c : vesa) (d : depth) (idx : N) : list N :=
  match pixel_bytes c d idx with Some b => b | None => [] end.

Definition paint (c : vesa) (f : font) (d : depth) (cl : cell) : cell_pix :=
  let '(ch, fg, bg) := cl in
  fun r q k => byte_at (pixbytes c d (if glyph_bit f ch r q then fg else bg)) k.

Definition RelV (c : vesa) (f : font) (d : depth) (m : fbuf) (g : cgrid) : Prop :=
  gw g = wchars c /\ gh g = hchars c /\
  forall x y, 1 <= x <= wchars c -> 1 <= y <= hchars c ->
    gcell g x y = MARK \/ cell_rel f d (gcell (vesa_grid c f m) x y) (paint c f d (gcell g x y)).

Definition call_okv (k : ccall) : Prop :=
  match k with
  | CWrite ch f b x y => ch < 256 /\ f < 256 /\ b < 256 /\ x < two32 /\ y < two32
  | CFill _ _ _ _ _ b => b < 256
  | CScroll d n => n < two32 /\ VgaProofs.dir_of d <> None
  end.

Lemma cell_rel_trans f d a b c0 : cell_rel f d a b -> cell_rel f d b c0 -> cell_rel f d a c0.
Proof. intros H1 H2 r q k Hr Hq Hk. now rewrite H1, H2. Qed.

Lemma cell_of_logo c f X Y : Y < offsetY c -> cell_of c f X Y = None.
Proof.
  intros H. unfold cell_of. destruct (N.leb_spec (offsetY c) Y); [lia|].
  now rewrite andb_false_r.
Qed.

Lemma protected_spec c i : protected c i <->
  (pw c * bytespp c <= i mod pitch c \/ i / pitch c < offsetY c).
Proof.
  unfold protected, place_of. destruct (N.ltb_spec (i mod pitch c) (pw c * bytespp c)) as [L|L]; split; intros HH; try lia; auto; try (destruct HH; [lia|assumption]).
Qed.

(** one console call *)
Lemma vesa_apply_refines c f d m g k :
  vesa_wf c f d m -> RelV c f d m g ->
  (forall r q, r < f_gh f -> q < f_gw f -> glyph_bit f 32 r q = false) ->
  call_okv k ->
  exists m', vesa_apply c m k = Mem.Ok m' /\ vesa_wf c f d m' /\
             RelV c f d m' (apply_call mark_junk g k) /\
             (forall i, protected c i -> load m' i = load m i).
Proof.
  intros Hwf (Gw & Gh & RC) Hsp Hk.
  destruct k as [ch fg bg x y|x y wd ht fg bg|dr n]; cbn [vesa_apply apply_call call_okv] in *.
  - (* Write *)
    destruct Hk as (H1 & H2 & H3 & H4 & H5).
    destruct (vesa_write_spec c f d m ch fg bg x y Hwf H1 H2 H3 H4 H5) as (m' & fgb & bgb & P1 & P2 & E & FL & BY).
    destruct (vesa_write_refines c f d m ch fg bg x y Hwf H1 H2 H3 H4 H5) as (m2 & fgb2 & bgb2 & P1' & P2' & E2 & Hwf' & (D1 & D2 & GE)).
    assert (m2 = m') by congruence. subst m2. assert (fgb2 = fgb) by congruence. assert (bgb2 = bgb) by congruence.
    subst fgb2 bgb2. clear P1' P2' E2.
    exists m'. split; [exact E|]. split; [exact Hwf'|]. split.
    + destruct (g_write_dims g x y (ch, fg, bg)) as (A1 & A2).
      split; [congruence|]. split; [congruence|]. intros cx cy Hcx Hcy.
      specialize (GE cx cy ltac:(apply in_grid_spec; cbn [vesa_grid gw gh]; lia)).
      unfold g_write in *.
      rewrite (in_grid_same (vesa_grid c f m) g x y) in GE by (cbn [vesa_grid gw gh]; congruence).
      destruct (in_grid g x y); cbn [gcell] in *.
      * destruct ((cx =? x) && (cy =? y)).
        -- right. eapply cell_rel_trans; [exact GE|]. intros r q k Hr Hq Hk0.
           unfold glyph_cell, paint, pixbytes. destruct (glyph_bit f ch r q); [now rewrite P1|now rewrite P2].
        -- destruct (RC cx cy Hcx Hcy) as [M|Rl]; [left; exact M|right; eapply cell_rel_trans; eassumption].
      * destruct (RC cx cy Hcx Hcy) as [M|Rl]; [left; exact M|right; eapply cell_rel_trans; eassumption].
    + intros i Hp. rewrite BY. destruct (in_grid (vesa_dims c) x y); [|reflexivity].
      unfold write_ref. unfold protected in Hp. destruct (place_of c i) as [|X Y k0]; [reflexivity|].
      now rewrite cell_of_logo.
  - (* Fill *)
    destruct (vesa_fill_spec c f d m x y wd ht fg bg Hwf Hk) as (m' & bgb & P1 & E & FL & BY).
    destruct (vesa_fill_refines c f d m x y wd ht fg bg Hwf Hk) as (m2 & bgb2 & P1' & E2 & Hwf' & (D1 & D2 & GE)).
    assert (m2 = m') by congruence. subst m2. assert (bgb2 = bgb) by congruence. subst bgb2. clear P1' E2.
    exists m'. split; [exact E|]. split; [exact Hwf'|]. split.
    + split; [exact Gw|]. split; [exact Gh|]. intros cx cy Hcx Hcy.
      specialize (GE cx cy ltac:(apply in_grid_spec; cbn [vesa_grid gw gh]; lia)).
      cbn [g_fill gcell] in *.
      replace (in_fill (vesa_grid c f m) x y wd ht cx cy) with (in_fill g x y wd ht cx cy) in GE
        by (unfold in_fill; cbn [vesa_grid gw gh]; now rewrite Gw, Gh).
      destruct (in_fill g x y wd ht cx cy).
      * right. eapply cell_rel_trans; [exact GE|]. intros r q k Hr Hq Hk0.
        unfold solid_cell, paint, pixbytes. rewrite Hsp by assumption. now rewrite P1.
      * destruct (RC cx cy Hcx Hcy) as [M|Rl]; [left; exact M|right; eapply cell_rel_trans; eassumption].
    + intros i Hp. rewrite BY. unfold fill_ref. unfold protected in Hp.
      destruct (place_of c i) as [|X Y k0]; [reflexivity|]. now rewrite cell_of_logo.
  - (* Scroll *)
    destruct Hk as (Hn & Hd). rewrite dir_of_same.
    destruct (VgaProofs.dir_of dr) as [sd|] eqn:Ed; [|congruence].
    destruct (vesa_scroll_spec c f d m dr n Hwf Hn) as (m' & E & FL & BY).
    destruct (vesa_scroll_refines c f d m dr sd n Hwf Hn Ed) as (m2 & E2 & Hwf' & (D1 & D2 & GE)).
    assert (m2 = m') by congruence. subst m2. clear E2.
    exists m'. split; [exact E|]. split; [exact Hwf'|]. split.
    + destruct (g_scroll_dims g sd n mark_junk) as (A1 & A2).
      split; [congruence|]. split; [congruence|]. intros cx cy Hcx Hcy.
      specialize (GE cx cy ltac:(apply in_grid_spec; cbn [vesa_grid gw gh]; lia)).
      unfold g_scroll, scroll_ok in *. cbn [vesa_grid gh gw] in GE. rewrite Gh.
      destruct ((1 <=? n) && (n <=? hchars c)) eqn:So; cbn [gcell] in *.
      * apply andb_true_iff in So as (S1 & S2). apply N.leb_le in S1. apply N.leb_le in S2.
        destruct sd.
        -- destruct (N.leb_spec (cy + n) (hchars c)); [|left; reflexivity].
           destruct (RC cx (cy + n) Hcx ltac:(lia)) as [M|Rl]; [left; exact M|right; eapply cell_rel_trans; eassumption].
        -- destruct (N.ltb_spec n cy); [|left; reflexivity].
           destruct (RC cx (cy - n) Hcx ltac:(lia)) as [M|Rl]; [left; exact M|right; eapply cell_rel_trans; eassumption].
      * destruct (RC cx cy Hcx Hcy) as [M|Rl]; [left; exact M|right; eapply cell_rel_trans; eassumption].
    + intros i Hp. rewrite BY, Ed. destruct (scroll_ok (vesa_dims c) n); [|reflexivity].
      apply protected_spec in Hp. unfold scroll_ref.
      destruct (N.ltb_spec (i mod pitch c) (pw c * bytespp c)); [|reflexivity].
      destruct Hp as [Hp|Hp]; [lia|].
      destruct sd.
      * destruct (N.leb_spec (offsetY c) (i / pitch c)); [lia|]. reflexivity.
      * destruct (N.leb_spec (offsetY c + n * f_gh f) (i / pitch c)); [lia|]. reflexivity.
Qed.

Lemma vesa_apply_calls_refines c f d cs : forall m g,
  vesa_wf c f d m -> RelV c f d m g ->
  (forall r q, r < f_gh f -> q < f_gw f -> glyph_bit f 32 r q = false) ->
  Forall call_okv cs ->
  exists m', vesa_apply_calls c m cs = Mem.Ok m' /\ vesa_wf c f d m' /\
             RelV c f d m' (apply_calls_mark g cs) /\
             (forall i, protected c i -> load m' i = load m i).
Proof.
  induction cs as [|k t IH]; intros m g Hwf HR Hsp HF; cbn [vesa_apply_calls apply_calls_mark].
  - exists m. auto.
  - inversion HF as [|? ? Hk Ht]; subst.
    destruct (vesa_apply_refines c f d m g k Hwf HR Hsp Hk) as (m1 & E1 & Hwf1 & HR1 & PR1). rewrite E1.
    destruct (IH m1 _ Hwf1 HR1 Hsp Ht) as (m2 & E2 & Hwf2 & HR2 & PR2).
    exists m2. split; [exact E2|]. split; [exact Hwf2|]. split; [exact HR2|].
    intros i Hp. now rewrite PR2, PR1.
Qed.

(** a byte of a cell's pixel is at the index [pix_index] computes *)
Lemma place_index c f d m i X Y k cx cy q r :
  vesa_wf c f d m -> place_of c i = PixelByte X Y k -> cell_of c f X Y = Some (cx, cy, q, r) ->
  i = pix_index c f cx cy r q k /\ 1 <= cx <= wchars c /\ 1 <= cy <= hchars c /\ r < f_gh f /\ q < f_gw f.
Proof.
  intros W HP HC.
  pose proof (geometry c f d m W) as (G1 & G2 & G3 & G4 & G5 & G6 & G7 & G8 & G9 & G10 & G11 & G12).
  pose proof (wf_gw _ _ _ _ W) as Hgw. pose proof (wf_gh _ _ _ _ W) as Hgh.
  clear W.
  unfold place_of in HP.
  pose proof (N.div_mod i (pitch c) ltac:(lia)) as Di.
  set (b := i mod pitch c) in *. set (Y0 := i / pitch c) in *. clearbody b Y0.
  destruct (N.ltb_spec b (pw c * bytespp c)) as [Hb|Hb]; [|discriminate].
  pose proof (N.div_mod b (bytespp c) ltac:(lia)) as Db.
  set (x0 := b / bytespp c) in *. set (k0 := b mod bytespp c) in *. clearbody x0 k0.
  injection HP as EX EY Ek. subst x0 Y0 k0.
  unfold cell_of in HC.
  destruct (N.ltb_spec X (wchars c * f_gw f)) as [HX|]; [|discriminate].
  destruct (N.leb_spec (offsetY c) Y) as [HY1|]; [|discriminate].
  destruct (N.ltb_spec Y (offsetY c + hchars c * f_gh f)) as [HY2|]; [|discriminate].
  cbn [andb] in HC.
  pose proof (N.div_mod X (f_gw f) ltac:(lia)) as DX.
  pose proof (N.div_mod (Y - offsetY c) (f_gh f) ltac:(lia)) as DY.
  pose proof (N.mod_lt X (f_gw f) ltac:(lia)) as MX.
  pose proof (N.mod_lt (Y - offsetY c) (f_gh f) ltac:(lia)) as MY.
  assert (CX : X / f_gw f < wchars c) by (apply N.div_lt_upper_bound; [lia|rewrite N.mul_comm; exact HX]).
  assert (CY : (Y - offsetY c) / f_gh f < hchars c).
  { apply N.div_lt_upper_bound; [lia|]. rewrite N.mul_comm. clear - HY1 HY2. lia. }
  set (a1 := X / f_gw f) in *. set (q1 := X mod f_gw f) in *.
  set (a2 := (Y - offsetY c) / f_gh f) in *. set (r1 := (Y - offsetY c) mod f_gh f) in *.
  clearbody a1 q1 a2 r1.
  injection HC as Ecx Ecy Eq Er. subst cx cy q r.
  split; [|lia].
  unfold pix_index.
  replace (a1 + 1 - 1) with a1 by lia. replace (a2 + 1 - 1) with a2 by lia.
  replace (offsetY c + a2 * f_gh f + r1) with Y by lia.
  replace (a1 * f_gw f + q1) with X by lia.
  lia.
Qed.

(** calls of the terminal are acceptable to the framebuffer driver *)
Lemma call_okv_of w h k : w < two32 -> h < two32 -> call_in_grid w h k -> call_small k -> call_okv k.
Proof.
  intros Hw Hh HG HS. destruct k as [ch fg bg x y|x y wd ht fg bg|dr n]; cbn [call_in_grid call_small call_okv] in *.
  - lia.
  - lia.
  - destruct HG as (-> & Hn). split; [lia|]. discriminate.
Qed.

(** ---- C18 for the framebuffer console, down to the pixels ---- *)
Theorem sync_pixels_fb_thm :
  forall (c : vesa) (f : font) (d : depth) (m0 : fbuf) sb tab (ops : list op),
    vesa_wf c f d m0 -> tab <= 255 -> wchars c * (hchars c + sb) * 3 < two32 -> Forall op_wf ops ->
    (forall r q, r < f_gh f -> q < f_gw f -> glyph_bit f 32 r q = false) ->
    exists v0 v m,
      attach (new_vt tab sb) (wchars c) (hchars c) vesa_defaultFg vesa_defaultBg = Vt.Ok v0 /\
      run_ops v0 ops = Vt.Ok v /\
      vesa_apply_calls c m0 (rev (trace v)) = Mem.Ok m /\
      (forall i, protected c i -> load m i = load m0 i) /\
      (st v = tty_StateActive -> forall i, byte_shows c f d m v i).
Proof.
  intros c f d m0 sb tab ops Hwf Ht Hsz WF Hsp.
  set (w := wchars c) in *. set (h := hchars c) in *.
  pose proof (wf_w1 _ _ _ _ Hwf) as Hw. pose proof (wf_h1 _ _ _ _ Hwf) as Hh. fold w in Hw. fold h in Hh.
  assert (Hfg : vesa_defaultFg < 256) by reflexivity.
  assert (Hbg : vesa_defaultBg < 256) by reflexivity.
  set (g0 := mkGrid w h mark_junk : cgrid).
  destruct (boot_sim w h sb tab vesa_defaultFg vesa_defaultBg Hw Hh Hsz ops WF) as (v0 & v & E0 & E & I & RR & S & TR).
  set (r0 := r_init w h sb vesa_defaultFg vesa_defaultBg) in *.
  pose proof (w_small w h sb Hw Hh Hsz) as Hw32. pose proof (hs_small w h sb Hw Hh Hsz) as Hh32.
  pose proof (rinv_init w h sb tab vesa_defaultFg vesa_defaultBg Hw Hh Hsz) as RI0.
  destruct (small_run w h sb tab vesa_defaultFg vesa_defaultBg Hw Hh Hfg Hbg ops tty_newState r0 RI0
              (small_init w h sb vesa_defaultFg vesa_defaultBg Hw Hh Hfg Hbg) WF) as (SM & CS).
  assert (OK : Forall call_okv (rev (trace v))).
  { rewrite TR.
    pose proof (in_grid_run w h sb tab vesa_defaultFg vesa_defaultBg Hw Hh ops tty_newState _ RI0 WF) as IG.
    rewrite Forall_forall in *. intros k Hk. apply (call_okv_of w h); [lia|lia|now apply IG|now apply CS]. }
  assert (RV0 : RelV c f d m0 g0).
  { split; [reflexivity|]. split; [reflexivity|]. intros x y _ _. left. reflexivity. }
  destruct (vesa_apply_calls_refines c f d (rev (trace v)) m0 g0 Hwf RV0 Hsp OK) as (m & Em & Hwfm & (_ & _ & RC) & PR).
  exists v0, v, m. split; [exact E0|]. split; [exact E|]. split; [exact Em|]. split; [exact PR|].
  intros Ha i. unfold byte_shows.
  destruct (place_of c i) as [|X Y k] eqn:EP; [exact Logic.I|].
  destruct (cell_of c f X Y) as [[[[cx cy] q] r]|] eqn:EC; [|exact Logic.I].
  intros Hk.
  destruct (place_index c f d m i X Y k cx cy q r Hwfm EP EC) as (Ei & Hcx & Hcy & Hr & Hq).
  destruct (shows_run w h sb tab vesa_defaultFg vesa_defaultBg Hw Hh Hsz ops v g0 _ WF I RR S TR eq_refl eq_refl
              (apply_calls_mark_rel (rev (trace v)) g0) Ha) as (_ & _ & SC).
  destruct I as ((Ga & Gvw & Gvh & Grest) & Dn & Cu).
  assert (EV : gcell (apply_calls_mark g0 (rev (trace v))) cx cy = v_cell v cx cy)
    by (apply SC; [rewrite Gvw|rewrite Gvh]; assumption).
  assert (SMC : small_cell (v_cell v cx cy)).
  { rewrite <- (r_cell_v_cell w h sb tab vesa_defaultFg vesa_defaultBg Hw Hh Hsz v _ cx cy
                  (conj (conj Ga (conj Gvw (conj Gvh Grest))) (conj Dn Cu)) RR Hcx Hcy).
    rewrite r_cell_lcell. destruct RR as ((_ & EVw & _) & _).
    destruct Dn as (_ & _ & DV & _). apply SM; lia. }
  destruct (RC cx cy Hcx Hcy) as [M|Rl].
  - exfalso. rewrite EV in M. rewrite M in SMC. unfold MARK, small_cell in SMC. lia.
  - rewrite EV in Rl. destruct (v_cell v cx cy) as [[ch fg] bg]. cbn [small_cell] in SMC.
    specialize (Rl r q k Hr Hq Hk). cbn [vesa_grid gcell paint] in Rl.
    destruct (pixel_bytes_ok c f d m (if glyph_bit f ch r q then fg else bg) Hwfm
                ltac:(destruct (glyph_bit f ch r q); lia)) as (bytes & PB & _).
    exists bytes. split; [exact PB|]. rewrite Ei, Rl. unfold pixbytes. now rewrite PB.
Qed.
