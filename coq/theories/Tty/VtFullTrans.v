(** ALL methods of tty.VT as modelled by hand in Tty/Vt.v ARE the Gallina translation that gen/gotrans
    (extended mode) regenerates from kernel/device/tty/vt.go on every run (Gen/Trans_tty_vt_full.v).
    The record of the translation has the fields of the Go struct (the console reference as "is
    non-nil") plus the trace of console calls ([gevent], most recent first); [to_gof] maps the
    model's record to it.  Results are [gres]: a value, [GPanic] (Go run-time panic: index out of
    range, call through a nil console) or [GFuel] (a loop ran out of fuel; excluded by a stated bound).

    Preconditions (none of them is an invariant of the terminal, they say that the record is a Go
    value): [vt_pre] - viewportY is a uint32, len(data) is an int, and int(viewportY)*stride does
    not overflow int; and, where the console is called, that it is attached (or the terminal
    inactive) - WriteByte / Write / SetState check that themselves. *)
From Coq Require Import NArith ZArith String List Bool Lia.
From Coq Require Import ZifyBool ZifyN ZifyNat.
From FF Require Import Lib.Word Lib.GoOps Lib.GoOpsExt Gen.Consts_device_tty Gen.Trans_tty_vt_full.
From FF Require Import Tty.Vt Tty.VtSpec Tty.ListFacts Tty.VtLoops.
From FF Require Tty.VtTrans.
Import ListNotations.
Local Open Scope N_scope.

(** ---- the abstraction ---- *)
Definition ev_of (c : ccall) : gevent :=
  match c with
  | CWrite ch fg bg x y => GEv "Write" [ch; fg; bg; x; y]
  | CFill x y w h fg bg => GEv "Fill" [x; y; w; h; fg; bg]
  | CScroll d n => GEv "Scroll" [d; n]
  end.

Definition to_gof (v : vt) : go_tty_VT :=
  mk_go_tty_VT (attached v) (tw v) (th v) (vw v) (vh v) (sb v) (data v) (tabw v) (dfg v) (cfg v) (dbg v) (cbg v)
               (cx v) (cy v) (vy v) (doff v) (st v) (map ev_of (trace v)).

(** fields of the translation's record after its setters, of [to_gof], and of the model's setters (one field is
    forced at a time) *)
Ltac gproj :=
  cbn [to_gof f_VT_cons f_VT_termWidth f_VT_termHeight f_VT_viewportWidth f_VT_viewportHeight f_VT_scrollback f_VT_data
       f_VT_tabWidth f_VT_defaultFg f_VT_curFg f_VT_defaultBg f_VT_curBg f_VT_cursorX f_VT_cursorY f_VT_viewportY
       f_VT_dataOffset f_VT_state f_VT_trace
       set_f_VT_cons set_f_VT_termWidth set_f_VT_termHeight set_f_VT_viewportWidth set_f_VT_viewportHeight
       set_f_VT_scrollback set_f_VT_data set_f_VT_tabWidth set_f_VT_defaultFg set_f_VT_curFg set_f_VT_defaultBg
       set_f_VT_curBg set_f_VT_cursorX set_f_VT_cursorY set_f_VT_viewportY set_f_VT_dataOffset set_f_VT_state
       set_f_VT_trace
       attached Vt.vw Vt.vh Vt.tw Vt.th Vt.sb tabw dfg dbg cfg cbg Vt.cx Vt.cy Vt.vy doff st data trace
       set_cx set_cy set_vy set_doff set_st set_data set_trace emit active].

(** the translator re-wraps the result of a call that returns nothing *)
Lemma gres_unit_eta {A} (x : gres (A * unit)) :
  match x with GOk (a, _) => GOk (a, tt) | GPanic => GPanic | GFuel => GFuel end = x.
Proof. destruct x as [[a []]| |]; reflexivity. Qed.

Definition res_unit (o : outcome vt) : gres (go_tty_VT * unit) :=
  match o with Ok v' => GOk (to_gof v', tt) | PanicOOB => GPanic end.

(** the model's list primitives are those of the translation *)
Lemma getN_gidx l i : getN l i = gidx l i.
Proof. apply getN_nth_error. Qed.

Lemma setN_gset l : forall i v, setN l i v = gset l i v.
Proof.
  induction l as [|x r IH]; intros i v.
  - unfold gset, glen. cbn [setN length N.of_nat]. destruct (N.ltb_spec i 0); [lia|reflexivity].
  - cbn [setN]. destruct (N.eqb_spec i 0) as [->|Hi].
    + reflexivity.
    + rewrite IH. unfold gset, glen. cbn [length].
      destruct (N.ltb_spec (N.pred i) (N.of_nat (length r))); destruct (N.ltb_spec i (N.of_nat (S (length r)))); try lia.
      * replace (N.to_nat i) with (S (N.to_nat (N.pred i))) by lia. reflexivity.
      * reflexivity.
Qed.

Lemma lenN_glen l : lenN l = glen l.
Proof. apply lenN_length. Qed.

(** ---- the loop-free methods (as in Tty/VtTrans.v, for the record with the trace) ---- *)
Theorem state_full v : go_tty_VT_State (to_gof v) = GOk (to_gof v, st v).
Proof. reflexivity. Qed.

Theorem cursorPosition_full v : go_tty_VT_CursorPosition (to_gof v) = GOk (to_gof v, (cx v, cy v)).
Proof. reflexivity. Qed.

Theorem updateDataOffset_full v :
  go_tty_VT_updateDataOffset (to_gof v) = GOk (to_gof (update_data_offset v), tt).
Proof.
  unfold go_tty_VT_updateDataOffset, update_data_offset, set_doff, to_gof. gproj.
  rewrite VtTrans.doff_eq. reflexivity.
Qed.

Theorem cr_full v : go_tty_VT_cr (to_gof v) = GOk (to_gof (cr v), tt).
Proof.
  cbv delta [go_tty_VT_cr cr]. cbv beta zeta. change (gw 32 1) with 1.
  change (set_f_VT_cursorX (to_gof v) 1) with (to_gof (set_cx v 1)).
  rewrite updateDataOffset_full. reflexivity.
Qed.

Theorem setCursorPosition_full v x y :
  go_tty_VT_SetCursorPosition (to_gof v) x y = GOk (to_gof (set_cursor_position v x y), tt).
Proof.
  destruct (attached v) eqn:E.
  2:{ unfold go_tty_VT_SetCursorPosition, set_cursor_position.
      change (f_VT_cons (to_gof v)) with (attached v). rewrite E. reflexivity. }
  unfold go_tty_VT_SetCursorPosition, set_cursor_position.
  change (gw 32 1) with 1.
  assert (K: forall X Y, match go_tty_VT_updateDataOffset (to_gof (set_cy (set_cx v X) Y)) with
                         | GPanic => GPanic | GFuel => GFuel | GOk (v_t, _) => GOk (v_t, tt) end =
                         GOk (to_gof (update_data_offset (set_cy (set_cx v X) Y)), tt)).
  { intros X Y. rewrite updateDataOffset_full. reflexivity. }
  replace (negb (f_VT_cons (to_gof v))) with false
    by (change (f_VT_cons (to_gof v)) with (attached v); rewrite E; reflexivity).
  rewrite E. cbn [negb].
  change (f_VT_viewportWidth (to_gof v)) with (vw v).
  change (f_VT_viewportHeight (to_gof v)) with (vh v).
  destruct (x <? 1); destruct (vw v <? x); destruct (y <? 1); destruct (vh v <? y); exact (K _ _).
Qed.

(** ---- preconditions and fuel ---- *)
Definition stride_of (v : vt) : N := w32 (vw v * 3).

(** the record is a Go value whose int arithmetic in lf cannot overflow: viewportY is a uint32, len(data) an
    int, the stride (3 * viewportWidth as uint32) below 2^31 - so that every offset lf computes
    (at most 2^32 * stride) is a non-negative int *)
Definition vt_pre (v : vt) : Prop := vy v < two32 /\ lenN (data v) < two63 /\ stride_of v < 2 ^ 31.

(** enough fuel for every loop of lf / doWrite / WriteByte: the scroll loop makes at most 2^32 * stride
    iterations, the blank loop at most stride, the tab loop at most 255 *)
Definition vt_fuel (v : vt) : N := 2 ^ 32 * stride_of v + 256.

Lemma gsets_setN d i x : lenN d < two63 -> gsets 64 d i x = setN d i x.
Proof.
  intros H. rewrite lenN_length in H. unfold gsets. destruct (N.lt_ge_cases i two63) as [A|A].
  - rewrite gisneg_small by exact A. symmetry. apply setN_gset.
  - rewrite gisneg_big by exact A. symmetry. apply setN_none. lia.
Qed.

Lemma gidxs_getN d i : lenN d < two63 -> gidxs 64 d i = getN d i.
Proof.
  intros H. rewrite lenN_length in H. unfold gidxs. destruct (N.lt_ge_cases i two63) as [A|A].
  - rewrite gisneg_small by exact A. symmetry. apply getN_gidx.
  - rewrite gisneg_big by exact A. symmetry. apply getN_none. lia.
Qed.

Lemma setN_length l i x l' : setN l i x = Some l' -> length l' = length l.
Proof. rewrite setN_gset. apply gset_length. Qed.

(** The two byte loops of lf and AttachTo: a [gloop] over (record, offset) whose body makes the stores of [copy_loop] / [blank_loop] computes what those do,
    whatever the record: [mk d] is the loop's record holding the buffer [d], and the body need only behave so on
    buffers of the length [L] the loop keeps and on offsets that are non-negative ints. *)
Section ByteLoops.
Context {G R : Type} (mk : list N -> G) (step : G * N -> gres (gctl (G * N) R)) (L : nat).

Lemma copy_gloop E T :
  (forall d o, length d = L -> o < two63 -> step (mk d, o) =
     if o <? E then
       match getN d (o + T) with
       | Some x => match setN d o x with Some d' => GOk (GNext (mk d', o + 1)) | None => GPanic end
       | None => GPanic
       end
     else GOk (GBreak (mk d, o))) ->
  E < two63 ->
  forall n d o fu, length d = L -> o < two63 -> n = N.to_nat (E - o) -> (n < fu)%nat ->
  gloop fu step (mk d, o) =
  match copy_loop n d o E T with
  | Some d' => GOk (inl (mk d', if o <? E then E else o))
  | None => GPanic
  end.
Proof.
  intros Hstep HE. induction n as [|n IH]; intros d o fu Hd Ho Hn Hfu; (destruct fu as [|fu]; [lia|]);
    rewrite gloop_S, (Hstep d o Hd Ho); cbn [copy_loop]; destruct (N.ltb_spec o E) as [A|A]; try lia; [reflexivity|].
  destruct (getN d (o + T)) as [x|]; [|reflexivity].
  destruct (setN d o x) as [d2|] eqn:E2; [|reflexivity].
  rewrite (IH d2 (o + 1) fu) by (rewrite ?(setN_length _ _ _ _ E2); lia).
  destruct (copy_loop n d2 (o + 1) E T); [|reflexivity].
  destruct (N.ltb_spec (o + 1) E); [reflexivity|]. replace (o + 1) with E by lia. reflexivity.
Qed.

Lemma blank_gloop lim fg bg :
  (forall d o, length d = L -> o < two63 -> step (mk d, o) =
     if o <? lim then
       match setN d o 32 with None => GPanic | Some d1 =>
       match setN d1 (o + 1) fg with None => GPanic | Some d2 =>
       match setN d2 (o + 2) bg with None => GPanic | Some d3 => GOk (GNext (mk d3, o + 3)) end end end
     else GOk (GBreak (mk d, o))) ->
  lim + 3 <= two63 ->
  forall n d o fu, length d = L -> o < lim + 3 -> n = N.to_nat ((lim - o + 2) / 3) -> (n < fu)%nat ->
  gloop fu step (mk d, o) =
  match blank_loop n d o lim fg bg with
  | Some d' => GOk (inl (mk d', o + 3 * N.of_nat n))
  | None => GPanic
  end.
Proof.
  intros Hstep Hlim. induction n as [|n IH]; intros d o fu Hd Ho Hn Hfu; (destruct fu as [|fu]; [lia|]);
    rewrite gloop_S, (Hstep d o Hd) by lia; cbn [blank_loop]; destruct (N.ltb_spec o lim) as [A|A]; try lia.
  - replace (o + 3 * N.of_nat 0) with o by lia. reflexivity.
  - destruct (setN d o 32) as [d1|] eqn:E1; [|reflexivity].
    destruct (setN d1 (o + 1) fg) as [d2|] eqn:E2; [|reflexivity].
    destruct (setN d2 (o + 2) bg) as [d3|] eqn:E3; [|reflexivity].
    rewrite (IH d3 (o + 3) fu)
      by (rewrite ?(setN_length _ _ _ _ E3), ?(setN_length _ _ _ _ E2), ?(setN_length _ _ _ _ E1); lia).
    replace (o + 3 * N.of_nat (S n)) with (o + 3 + 3 * N.of_nat n) by lia. reflexivity.
Qed.
End ByteLoops.

(** ---- lf ---- *)
Ltac msimp :=
  unfold active, emit, set_trace, set_vy, set_cy, set_cx, set_data, set_doff, set_st; gproj.

Lemma sub32_lt a b : sub32 a b < two32.
Proof. unfold sub32. apply w32_lt. Qed.

Lemma lf_cr_reduce fuel v :
  go_tty_VT_lf fuel (to_gof v) true = go_tty_VT_lf fuel (to_gof (set_cx v 1)) false.
Proof. unfold go_tty_VT_lf. reflexivity. Qed.

Lemma copy_down_length d s e T d' : copy_down d s e T = Some d' -> length d' = length d.
Proof.
  unfold copy_down. destruct (N.leb_spec e s); [intros E; injection E as <-; reflexivity|].
  rewrite lenN_length. destruct (N.ltb_spec (N.of_nat (length d)) (e + T)); [discriminate|].
  intros E. injection E as <-.
  rewrite !takeN_firstn, !dropN_skipn, !app_length, !firstn_length, !skipn_length. lia.
Qed.

(** the console synchronisation at the end of lf, then updateDataOffset *)
Ltac lf_sync Hatt :=
  let A := fresh "A" in
  destruct (_ =? tty_StateActive) eqn:A;
  [ destruct Hatt as [Hatt|Hatt]; [|unfold active in Hatt; congruence];
    rewrite Hatt; rewrite gres_unit_eta; rewrite <- updateDataOffset_full; reflexivity
  | rewrite gres_unit_eta; rewrite <- updateDataOffset_full; reflexivity ].

Theorem lf_false_is_translation v fuel :
  vt_pre v -> attached v = true \/ active v = false -> (N.to_nat (vt_fuel v) < fuel)%nat ->
  go_tty_VT_lf fuel (to_gof v) false = res_unit (lf v false).
Proof.
  intros (Hvy & Hlen & Hst) Hatt Hfuel.
  cbv delta [go_tty_VT_lf to_gof]. cbv beta. gproj. unfold lf, scroll_buffer.
  change (gw 32) with w32. change (gsub 32) with sub32.
  destruct (w32 (cy v + 1) <=? vh v).
  { cbn [bind res_unit]. rewrite gres_unit_eta, <- updateDataOffset_full. reflexivity. }
  destruct (w32 (vy v + vh v) <? th v).
  { cbn [bind res_unit]. msimp. lf_sync Hatt. }
  (* the bottom of the buffer: scroll the contents up, blank the last line; every offset is a non-negative int *)
  fold (stride_of v). set (T := stride_of v) in *.
  set (S0 := vy v * T). set (E0 := sub32 (w32 (vy v + vh v)) 1 * T).
  pose proof (sub32_lt (w32 (vy v + vh v)) 1) as Hm.
  assert (B : S0 < two63 /\ E0 + T + 3 < two63 /\
              (N.to_nat (E0 - S0) < fuel)%nat /\ (N.to_nat ((T + 2) / 3) < fuel)%nat).
  { unfold vt_fuel in Hfuel. fold T in Hfuel. unfold S0, E0, two32, two63 in *. clearbody T. clear - Hvy Hst Hm Hfuel.
    repeat split; nia. }
  destruct B as (HS63 & HE63 & HfE & HfT). unfold two63 in HS63, HE63, Hlen.
  assert (HT : gw 64 T = T) by (apply gw64_small'; lia). rewrite !HT.
  assert (HS : gw 64 (gw 64 (vy v) * T) = S0).
  { rewrite (gw64_small' (vy v)) by (unfold two32 in Hvy; lia). apply gw64_small'. fold S0. lia. }
  assert (HE : gw 64 (gw 64 (sub32 (w32 (vy v + vh v)) 1) * T) = E0).
  { rewrite (gw64_small' (sub32 _ _)) by (unfold two32 in Hm; lia). apply gw64_small'. fold E0. lia. }
  rewrite HS, !HE, (gw64_small' (E0 + T)) by lia.
  clear HT HS HE Hm Hvy Hst Hfuel. clearbody S0 E0 T.
  (* first loop *)
  match goal with |- context [gloop fuel ?f (?g, S0)] => set (step1 := f); set (g0 := g) end.
  change (g0, S0) with (set_f_VT_data g0 (data v), S0).
  rewrite (copy_gloop (set_f_VT_data g0) step1 (length (data v)) E0 T) with (n := N.to_nat (E0 - S0));
    [ | | unfold two63; lia | reflexivity | unfold two63; lia | reflexivity | exact HfE ].
  2:{ intros d o Hd Ho. unfold step1. cbv beta iota zeta. change (f_VT_data (set_f_VT_data g0 d)) with d.
      assert (Hd63 : lenN d < two63) by (rewrite lenN_length, Hd, <- lenN_length; exact Hlen).
      rewrite gslt_small, gidxs_getN by (assumption || (unfold two63; lia)).
      unfold two63 in Ho. rewrite (gw64_small' (o + T)), (gw64_small' (o + 1)) by lia.
      destruct (getN d (o + T)); [|reflexivity]. rewrite gsets_setN by exact Hd63. reflexivity. }
  rewrite copy_down_is_loop.
  destruct (copy_loop (N.to_nat (E0 - S0)) (data v) S0 E0 T) as [d1|] eqn:EC; [|reflexivity].
  rewrite <- copy_down_is_loop in EC. apply copy_down_length in EC.
  cbv iota beta.
  (* second loop *)
  match goal with |- context [gloop fuel ?f (_, E0)] => set (step2 := f) end.
  rewrite (blank_gloop (set_f_VT_data g0) step2 (length (data v)) (E0 + T) (dfg v) (dbg v))
    with (n := N.to_nat ((T + 2) / 3));
    [ | | unfold two63; lia | exact EC | lia | f_equal; f_equal; lia | exact HfT ].
  2:{ intros d o Hd Ho. unfold step2. cbv beta iota zeta.
      cbn [f_VT_data f_VT_defaultFg f_VT_defaultBg set_f_VT_data g0].
      assert (Hd63 : lenN d < two63) by (rewrite lenN_length, Hd, <- lenN_length; exact Hlen).
      rewrite gslt_small by (assumption || (unfold two63; lia)).
      unfold two63 in Ho.
      rewrite (gw64_small' (o + 0)), (gw64_small' (o + 1)), (gw64_small' (o + 2)), (gw64_small' (o + 3)) by lia.
      rewrite N.add_0_r. change (gw 8 32) with 32.
      rewrite gsets_setN by exact Hd63.
      destruct (setN d o 32) as [da|] eqn:Ea; [|reflexivity].
      rewrite gsets_setN by (rewrite lenN_length, (setN_length _ _ _ _ Ea), <- lenN_length; exact Hd63).
      destruct (setN da (o + 1) (dfg v)) as [db|] eqn:Eb; [|reflexivity].
      rewrite gsets_setN
        by (rewrite lenN_length, (setN_length _ _ _ _ Eb), (setN_length _ _ _ _ Ea), <- lenN_length; exact Hd63).
      destruct (setN db (o + 2) (dbg v)); reflexivity. }
  rewrite blank_range_is_loop.
  destruct (blank_loop (N.to_nat ((T + 2) / 3)) d1 E0 (E0 + T) (dfg v) (dbg v)) as [d2|]; [|reflexivity].
  cbv iota beta. cbn [bind res_unit]. unfold g0. msimp. lf_sync Hatt.
Qed.

Lemma vt_pre_data v d : vt_pre v -> length d = length (data v) -> vt_pre (set_data v d).
Proof.
  intros (A & B & C) L. unfold vt_pre, stride_of, set_data. gproj. rewrite lenN_length in *. rewrite L. auto.
Qed.

Theorem lf_is_translation v withCR fuel :
  vt_pre v -> attached v = true \/ active v = false -> (N.to_nat (vt_fuel v) < fuel)%nat ->
  go_tty_VT_lf fuel (to_gof v) withCR = res_unit (lf v withCR).
Proof.
  intros Hp Ha Hf. destruct withCR; [|apply lf_false_is_translation; assumption].
  rewrite lf_cr_reduce. change (lf v true) with (lf (set_cx v 1) false).
  apply lf_false_is_translation; assumption.
Qed.

(** ---- symbolic execution of the translated code on [to_gof v]: a field update of the translation's record
    is the model's setter (so the state stays of the form [to_gof <model term>]), a field read is the
    model's projection ---- *)
Lemma fold_data v d : set_f_VT_data (to_gof v) d = to_gof (set_data v d). Proof. reflexivity. Qed.
Lemma fold_cx v x : set_f_VT_cursorX (to_gof v) x = to_gof (set_cx v x). Proof. reflexivity. Qed.
Lemma fold_cy v x : set_f_VT_cursorY (to_gof v) x = to_gof (set_cy v x). Proof. reflexivity. Qed.
Lemma fold_vy v x : set_f_VT_viewportY (to_gof v) x = to_gof (set_vy v x). Proof. reflexivity. Qed.
Lemma fold_doff v x : set_f_VT_dataOffset (to_gof v) x = to_gof (set_doff v x). Proof. reflexivity. Qed.
Lemma fold_st v x : set_f_VT_state (to_gof v) x = to_gof (set_st v x). Proof. reflexivity. Qed.
Lemma fold_write v ch fg bg x y :
  set_f_VT_trace (to_gof v) (GEv "Write" [ch; fg; bg; x; y] :: map ev_of (trace v)) = to_gof (emit v (CWrite ch fg bg x y)).
Proof. reflexivity. Qed.
Lemma fold_fill v x y w h fg bg :
  set_f_VT_trace (to_gof v) (GEv "Fill" [x; y; w; h; fg; bg] :: map ev_of (trace v)) = to_gof (emit v (CFill x y w h fg bg)).
Proof. reflexivity. Qed.
Lemma fold_scroll v d n :
  set_f_VT_trace (to_gof v) (GEv "Scroll" [d; n] :: map ev_of (trace v)) = to_gof (emit v (CScroll d n)).
Proof. reflexivity. Qed.

Ltac gfold := repeat (progress rewrite ?fold_data, ?fold_cx, ?fold_cy, ?fold_vy, ?fold_doff, ?fold_st,
                                ?fold_write, ?fold_fill, ?fold_scroll).

(** ---- doWrite ---- *)
Lemma gw64_eq x : gw 64 x = w64 x. Proof. reflexivity. Qed.
Lemma gw32_eq x : gw 32 x = w32 x. Proof. reflexivity. Qed.
Lemma gsub32_eq a b : gsub 32 a b = sub32 a b. Proof. reflexivity. Qed.

(** NB: no [change (gw 64) with w64] on these goals: the kernel re-checks such a conversion at every use of a
    let-bound record, which is exponential in the nesting; rewriting with the three lemmas above is linear *)
Ltac gwfix := repeat match goal with
  | |- context [gw 32 ?a] => rewrite (gw32_eq a)
  | |- context [gw 64 ?a] => rewrite (gw64_eq a)
  | |- context [gsub 32 ?a ?b] => rewrite (gsub32_eq a b)
  end.
Ltac gstep := repeat (progress (gfold; gproj; gwfix)); rewrite <- ?setN_gset.

Ltac do_write_tail v adv fuel Hp Hatt Hfuel :=
  let d1 := fresh "d1" in let d2 := fresh "d2" in let d3 := fresh "d3" in
  let E1 := fresh "E1" in let E2 := fresh "E2" in let E3 := fresh "E3" in
  destruct (setN (data v) (doff v) _) as [d1|] eqn:E1; [|reflexivity]; cbn [bind]; gstep;
  destruct (setN d1 _ _) as [d2|] eqn:E2; [|reflexivity]; cbn [bind]; gstep;
  destruct (setN d2 _ _) as [d3|] eqn:E3; [|reflexivity]; cbn [bind]; gstep;
  (destruct adv; [|reflexivity]);
  (destruct (vw v <? w32 (cx v + 1)); [|reflexivity]);
  rewrite gres_unit_eta; apply lf_is_translation;
  [ destruct Hp as (P1 & P2 & P3); unfold vt_pre, stride_of in *; gproj; rewrite lenN_length in *;
    rewrite (setN_length _ _ _ _ E3), (setN_length _ _ _ _ E2), (setN_length _ _ _ _ E1); auto
  | unfold active in *; gproj; exact Hatt
  | exact Hfuel ].

Theorem doWrite_is_translation v b adv fuel :
  vt_pre v -> attached v = true \/ active v = false -> (N.to_nat (vt_fuel v) < fuel)%nat ->
  go_tty_VT_doWrite fuel (to_gof v) b adv = res_unit (do_write v b adv).
Proof.
  intros Hp Hatt Hfuel.
  cbv delta [go_tty_VT_doWrite do_write store]. cbv beta zeta.
  gstep. unfold active.
  destruct (st v =? tty_StateActive) eqn:A.
  - assert (Ha : attached v = true) by (destruct Hatt as [H|H]; [exact H|unfold active in H; congruence]).
    rewrite Ha. gstep. do_write_tail v adv fuel Hp Hatt Hfuel.
  - do_write_tail v adv fuel Hp Hatt Hfuel.
Qed.

(** ---- what the model's operations leave unchanged (so that the preconditions and the fuel bound carry
    over from one call to the next) ---- *)
Definition frame (v v' : vt) : Prop :=
  attached v' = attached v /\ vw v' = vw v /\ tabw v' = tabw v /\
  length (data v') = length (data v) /\ (vy v < two32 -> vy v' < two32).

Lemma frame_refl v : frame v v.
Proof. unfold frame. auto. Qed.

Lemma frame_trans a b c : frame a b -> frame b c -> frame a c.
Proof. unfold frame. intros (A1 & A2 & A3 & A4 & A5) (B1 & B2 & B3 & B4 & B5). repeat split; try congruence. auto. Qed.

Lemma vt_pre_frame v v' : frame v v' -> vt_pre v -> vt_pre v'.
Proof.
  intros (A1 & A2 & A3 & A4 & A5) (P1 & P2 & P3). unfold vt_pre, stride_of in *. rewrite lenN_length in *.
  rewrite A4, A2. auto.
Qed.

Lemma vt_fuel_frame v v' : frame v v' -> vt_fuel v' = vt_fuel v.
Proof. intros (A1 & A2 & _). unfold vt_fuel, stride_of. rewrite A2. reflexivity. Qed.

Lemma blank_range_length d e T fg bg d' : blank_range d e T fg bg = Some d' -> length d' = length d.
Proof.
  unfold blank_range. destruct (N.eqb_spec ((T + 2) / 3) 0); [intros E; injection E as <-; reflexivity|].
  rewrite lenN_length. destruct (N.ltb_spec (N.of_nat (length d)) (e + (T + 2) / 3 * 3)); [discriminate|].
  intros E. injection E as <-.
  rewrite takeN_firstn, dropN_skipn, !app_length, firstn_length, skipn_length, blank_cells_length. lia.
Qed.

Lemma udo_frame v : frame v (update_data_offset v).
Proof. unfold frame, update_data_offset, set_doff. gproj. auto. Qed.
Lemma frame_set_cx v x : frame v (set_cx v x). Proof. unfold frame, set_cx. gproj. auto. Qed.
Lemma frame_set_cy v x : frame v (set_cy v x). Proof. unfold frame, set_cy. gproj. auto. Qed.
Lemma frame_set_doff v x : frame v (set_doff v x). Proof. unfold frame, set_doff. gproj. auto. Qed.
Lemma frame_set_st v x : frame v (set_st v x). Proof. unfold frame, set_st. gproj. auto. Qed.
Lemma frame_emit v c : frame v (emit v c). Proof. unfold frame, emit, set_trace. gproj. auto. Qed.
Lemma frame_set_vy v x : x < two32 -> frame v (set_vy v x). Proof. unfold frame, set_vy. gproj. auto. Qed.
Lemma frame_set_data v d : length d = length (data v) -> frame v (set_data v d).
Proof. unfold frame, set_data. gproj. auto. Qed.

Ltac fr_chain :=
  repeat first [ apply frame_refl | eapply frame_trans; [|apply udo_frame] | eapply frame_trans; [|apply frame_set_cx]
               | eapply frame_trans; [|apply frame_set_cy] | eapply frame_trans; [|apply frame_set_doff]
               | eapply frame_trans; [|apply frame_emit] ].

Lemma lf_frame v c v' : lf v c = Ok v' -> frame v v'.
Proof.
  unfold lf, scroll_buffer.
  set (v0 := if c then set_cx v 1 else v).
  assert (F0 : frame v v0) by (unfold v0; destruct c; [apply frame_set_cx|apply frame_refl]).
  clearbody v0. intros E. apply (frame_trans _ _ _ F0). clear F0 v.
  destruct (w32 (cy v0 + 1) <=? vh v0).
  { cbn [bind] in E. injection E as <-. fr_chain. }
  destruct (w32 (vy v0 + vh v0) <? th v0).
  { cbn [bind] in E. injection E as <-. pose proof (w32_lt (vy v0 + 1)).
    destruct (active (set_vy v0 (w32 (vy v0 + 1)))); fr_chain; apply frame_set_vy; assumption. }
  destruct (copy_down _ _ _ _) as [d1|] eqn:E1; [|discriminate].
  destruct (blank_range _ _ _ _ _) as [d2|] eqn:E2; [|discriminate].
  cbn [bind] in E. injection E as <-.
  apply copy_down_length in E1. apply blank_range_length in E2.
  destruct (active (set_data v0 d2)); fr_chain; apply frame_set_data; congruence.
Qed.

Lemma do_write_frame v b adv v' : do_write v b adv = Ok v' -> frame v v'.
Proof.
  unfold do_write, store.
  set (v0 := if active v then _ else v).
  assert (F0 : frame v v0) by (unfold v0; destruct (active v); [apply frame_emit|apply frame_refl]).
  clearbody v0. intros E. apply (frame_trans _ _ _ F0). clear F0 v.
  destruct (setN (data v0) (doff v0) b) as [d1|] eqn:E1; [|discriminate]. cbn [bind] in E.
  apply setN_length in E1. apply (frame_trans _ _ _ (frame_set_data v0 d1 E1)).
  set (v1 := set_data v0 d1) in *. clearbody v1. clear E1 v0.
  destruct (setN (data v1) _ _) as [d2|] eqn:E2; [|discriminate]. cbn [bind] in E.
  apply setN_length in E2. apply (frame_trans _ _ _ (frame_set_data v1 d2 E2)).
  set (v2 := set_data v1 d2) in *. clearbody v2. clear E2 v1.
  destruct (setN (data v2) _ _) as [d3|] eqn:E3; [|discriminate]. cbn [bind] in E.
  apply setN_length in E3. apply (frame_trans _ _ _ (frame_set_data v2 d3 E3)).
  set (v3 := set_data v2 d3) in *. clearbody v3. clear E3 v2.
  destruct adv; [|injection E as <-; apply frame_refl].
  match type of E with (if ?c then _ else _) = _ => destruct c end.
  - apply lf_frame in E. refine (frame_trans _ _ _ _ E). fr_chain.
  - injection E as <-. fr_chain.
Qed.

Lemma scp_frame v x y : frame v (set_cursor_position v x y).
Proof.
  unfold set_cursor_position. destruct (negb (attached v)); [apply frame_refl|]. fr_chain.
Qed.

Lemma cr_frame v : frame v (cr v).
Proof. unfold cr. fr_chain. Qed.

(** ---- WriteByte ---- *)
Definition err_of (e : N) : option string := if e =? 0 then None else Some "io.ErrClosedPipe"%string.

Definition res_err (o : outcome (vt * N)) : gres (go_tty_VT * option string) :=
  match o with Ok (v', e) => GOk (to_gof v', err_of e) | PanicOOB => GPanic end.

Theorem writeByte_is_translation v b fuel :
  vt_pre v -> tabw v < 256 -> (N.to_nat (vt_fuel v) < fuel)%nat ->
  go_tty_VT_WriteByte fuel (to_gof v) b = res_err (write_byte v b).
Proof.
  intros Hp Htab Hfuel.
  cbv delta [go_tty_VT_WriteByte write_byte]. cbv beta zeta. gstep.
  destruct (attached v) eqn:Ha; cbn [negb]; [|reflexivity].
  destruct (b =? 13).
  { rewrite cr_full. reflexivity. }
  destruct (b =? 10).
  { rewrite (lf_is_translation v true fuel Hp (or_introl Ha) Hfuel). destruct (lf v true); reflexivity. }
  destruct (b =? 8).
  { destruct (1 <? cx v); [|reflexivity].
    rewrite setCursorPosition_full.
    pose proof (scp_frame v (sub32 (cx v) 1) (cy v)) as F.
    rewrite doWrite_is_translation;
      [ | exact (vt_pre_frame _ _ F Hp) | left; destruct F as (F1 & _); congruence | rewrite (vt_fuel_frame _ _ F); exact Hfuel ].
    destruct (do_write _ 32 false); reflexivity. }
  destruct (b =? 9).
  { (* the tab loop *)
    match goal with |- context [gloop fuel ?f _] => set (step := f) end.
    assert (L : forall n v0 i fu, vt_pre v0 -> attached v0 = true -> tabw v0 = tabw v -> vt_fuel v0 = vt_fuel v ->
              i <= tabw v -> n = N.to_nat (tabw v - i) -> (n < fu)%nat ->
              gloop fu step (to_gof v0, i) =
              match repeat_do n (fun v => do_write v 32 true) v0 with
              | Ok v' => GOk (inl (to_gof v', tabw v))
              | PanicOOB => GPanic
              end).
    { induction n as [|n IH]; intros v0 i fu Hp0 Ha0 Ht0 Hf0 Hi Hn Hfu; (destruct fu as [|fu]; [lia|]).
      - cbn [repeat_do]. replace (tabw v) with i by lia. apply gloop_break.
        unfold step. gproj. rewrite Ht0. destruct (N.ltb_spec i (tabw v)); [lia|reflexivity].
      - cbn [repeat_do]. rewrite gloop_S. unfold step at 1. cbv beta iota zeta. gproj. rewrite Ht0.
        destruct (N.ltb_spec i (tabw v)); [|lia].
        rewrite (doWrite_is_translation v0 32 true fuel Hp0 (or_introl Ha0)) by (rewrite Hf0; exact Hfuel).
        destruct (do_write v0 32 true) as [v1|] eqn:E1; [|reflexivity]. cbn [res_unit bind].
        pose proof (do_write_frame _ _ _ _ E1) as F.
        unfold gw. rewrite N.mod_small by lia.
        apply IH; try lia.
        + exact (vt_pre_frame _ _ F Hp0).
        + destruct F as (F1 & _). congruence.
        + destruct F as (_ & _ & F3 & _). congruence.
        + rewrite (vt_fuel_frame _ _ F). exact Hf0. }
    change (gw 8 0) with 0.
    rewrite (L (N.to_nat (tabw v)) v 0 fuel Hp Ha eq_refl eq_refl ltac:(lia) ltac:(f_equal; lia)).
    2:{ unfold vt_fuel in Hfuel. lia. }
    destruct (repeat_do _ _ v); reflexivity. }
  rewrite (doWrite_is_translation v b true fuel Hp (or_introl Ha) Hfuel).
  destruct (do_write v b true); reflexivity.
Qed.

Lemma repeat_do_frame n : forall v v', repeat_do n (fun v => do_write v 32 true) v = Ok v' -> frame v v'.
Proof.
  induction n as [|n IH]; intros v v' E; cbn [repeat_do] in E.
  - injection E as <-. apply frame_refl.
  - destruct (do_write v 32 true) as [v1|] eqn:E1; [|discriminate]. cbn [bind] in E.
    exact (frame_trans _ _ _ (do_write_frame _ _ _ _ E1) (IH _ _ E)).
Qed.

Lemma write_byte_frame v b v' e : write_byte v b = Ok (v', e) -> frame v v'.
Proof.
  unfold write_byte. destruct (negb (attached v)); [intros E; injection E as <- _; apply frame_refl|].
  destruct (b =? 13); [cbn [bind]; intros E; injection E as <- _; apply cr_frame|].
  destruct (b =? 10).
  { destruct (lf v true) as [v1|] eqn:E1; [|discriminate]. cbn [bind]. intros E. injection E as <- _. exact (lf_frame _ _ _ E1). }
  destruct (b =? 8).
  { destruct (1 <? cx v); [|cbn [bind]; intros E; injection E as <- _; apply frame_refl].
    destruct (do_write _ 32 false) as [v1|] eqn:E1; [|discriminate]. cbn [bind]. intros E. injection E as <- _.
    exact (frame_trans _ _ _ (scp_frame _ _ _) (do_write_frame _ _ _ _ E1)). }
  destruct (b =? 9).
  { destruct (repeat_do _ _ v) as [v1|] eqn:E1; [|discriminate]. cbn [bind]. intros E. injection E as <- _.
    exact (repeat_do_frame _ _ _ E1). }
  destruct (do_write v b true) as [v1|] eqn:E1; [|discriminate]. cbn [bind]. intros E. injection E as <- _.
  exact (do_write_frame _ _ _ _ E1).
Qed.

(** ---- Write ---- *)
Definition res_write (o : outcome (vt * N * N)) : gres (go_tty_VT * (N * option string)) :=
  match o with Ok (v', n, e) => GOk (to_gof v', (n, err_of e)) | PanicOOB => GPanic end.

Lemma write_count bs : forall v c v' n, write v bs c = Ok (v', n, 0) -> n = c + N.of_nat (length bs).
Proof.
  induction bs as [|b r IH]; intros v c v' n E; cbn [write] in E.
  - injection E as _ <-. cbn [length]. lia.
  - destruct (write_byte v b) as [[v1 e]|]; [|discriminate]. cbn [bind] in E.
    destruct (N.eqb_spec e 0).
    + apply IH in E. cbn [length]. lia.
    + injection E as _ _ E. congruence.
Qed.

Theorem write_is_translation v bs fuel :
  vt_pre v -> tabw v < 256 -> (N.to_nat (vt_fuel v) < fuel)%nat -> (length bs < fuel)%nat ->
  go_tty_VT_Write fuel (to_gof v) bs = res_write (write v bs 0).
Proof.
  intros Hp Htab Hfuel Hlen.
  cbv delta [go_tty_VT_Write]. cbv beta zeta.
  match goal with |- context [gloop fuel ?f _] => set (step := f) end.
  assert (L : forall n k v0 fu, vt_pre v0 -> tabw v0 = tabw v -> vt_fuel v0 = vt_fuel v ->
            (k + n = length bs)%nat -> (n < fu)%nat ->
            gloop fu step (to_gof v0, N.of_nat k) =
            match write v0 (skipn k bs) (N.of_nat k) with
            | Ok (v', c, e) => if e =? 0 then GOk (inl (to_gof v', glen bs)) else GOk (inr (to_gof v', (c, err_of e)))
            | PanicOOB => GPanic
            end).
  { induction n as [|n IH]; intros k v0 fu Hp0 Ht0 Hf0 Hk Hfu; (destruct fu as [|fu]; [lia|]).
    - rewrite skipn_all2 by lia. cbn [write N.eqb].
      rewrite gloop_break with (s' := (to_gof v0, N.of_nat k)); [unfold glen; repeat f_equal; lia|].
      unfold step, glen. destruct (N.ltb_spec (N.of_nat k) (N.of_nat (length bs))); [lia|reflexivity].
    - assert (Hlt : (k < length bs)%nat) by lia.
      destruct (nth_error bs k) as [b|] eqn:Eb; [|apply nth_error_None in Eb; lia].
      assert (Esk : skipn k bs = b :: skipn (S k) bs).
      { clear - Eb. revert bs Eb. induction k as [|k IH]; intros [|x p] Eb; try discriminate.
        - injection Eb as ->. reflexivity.
        - cbn [nth_error] in Eb. cbn [skipn]. apply IH. exact Eb. }
      rewrite Esk. cbn [write]. rewrite gloop_S. unfold step at 1. cbv beta iota zeta.
      unfold glen. destruct (N.ltb_spec (N.of_nat k) (N.of_nat (length bs))); [|lia].
      unfold gidx. rewrite Nat2N.id, Eb.
      rewrite (writeByte_is_translation v0 b fuel Hp0) by (rewrite ?Ht0, ?Hf0; assumption).
      destruct (write_byte v0 b) as [[v1 e]|] eqn:E1; [|reflexivity]. cbn [res_err bind].
      unfold err_of at 1. destruct (N.eqb_spec e 0) as [->|Hne].
      + cbn [gerr_eqb negb].
        pose proof (write_byte_frame _ _ _ _ E1) as F.
        replace (N.of_nat k + 1) with (N.of_nat (S k)) by lia.
        apply IH; try lia.
        * exact (vt_pre_frame _ _ F Hp0).
        * destruct F as (_ & _ & F3 & _). congruence.
        * rewrite (vt_fuel_frame _ _ F). exact Hf0.
      + cbn [gerr_eqb negb]. destruct (N.eqb_spec e 0); [contradiction|].
        unfold err_of. destruct (N.eqb_spec e 0); [contradiction|]. reflexivity. }
  change 0 with (N.of_nat 0) at 1.
  rewrite (L (length bs) 0%nat v fuel Hp eq_refl eq_refl eq_refl Hlen). cbn [skipn N.of_nat].
  destruct (write v bs 0) as [[[v' c] e]|] eqn:E; [|reflexivity].
  destruct (N.eqb_spec e 0) as [->|Hne]; [|reflexivity].
  apply write_count in E. cbn [res_write]. unfold err_of, glen. cbn [N.eqb]. repeat f_equal. lia.
Qed.

(** ---- SetState ---- *)
Lemma emit_set_trace v tr c : emit (set_trace v tr) c = set_trace v (c :: tr).
Proof. reflexivity. Qed.

Lemma redraw_row_shape v y : forall xs tr off v', redraw_row (set_trace v tr) xs off y = Ok v' -> exists tr', v' = set_trace v tr'.
Proof.
  induction xs as [|x r IH]; intros tr off v' E; cbn [redraw_row] in E.
  - injection E as <-. eauto.
  - destruct (getN _ off); [|discriminate]. destruct (getN _ (w32 (off + 1))); [|discriminate].
    destruct (getN _ (w32 (off + 2))); [|discriminate]. rewrite emit_set_trace in E. eapply IH. exact E.
Qed.

Theorem setState_is_translation v s fuel :
  vw v < two32 - 1 -> vh v < two32 - 1 -> (N.to_nat (vw v) + 1 < fuel)%nat -> (N.to_nat (vh v) + 1 < fuel)%nat ->
  go_tty_VT_SetState fuel (to_gof v) s = res_unit (set_state v s).
Proof.
  intros Hw Hh Hfw Hfh. unfold two32 in *.
  cbv delta [go_tty_VT_SetState set_state]. cbv beta zeta. gstep.
  destruct (st v =? s); [reflexivity|].
  destruct (s =? tty_StateActive); cbn [andb]; [|reflexivity].
  destruct (attached v) eqn:Ha; [|reflexivity].
  set (v1 := set_st v s).
  assert (Ha1 : attached v1 = true) by exact Ha.
  change (vh v) with (vh v1). change (vw v) with (vw v1) in Hw, Hfw. change (vh v) with (vh v1) in Hh, Hfh.
  clearbody v1. clear Ha v.
  match goal with |- context [gloop fuel ?f _] => set (stepO := f) end.
  (* one iteration of the outer loop is one redraw_row *)
  assert (Row : forall tr y, 1 <= y -> y <= vh v1 ->
            stepO (to_gof (set_trace v1 tr), y) =
            match redraw_row (set_trace v1 tr) (seqN 1 (vw v1)) (w32 (w32 (sub32 y 1 + vy v1) * w32 (vw v1 * 3))) y with
            | Ok v' => GOk (GNext (to_gof v', y + 1))
            | PanicOOB => GPanic
            end).
  { intros tr y Hy1 Hy2. unfold stepO. cbv beta iota zeta. gstep.
    destruct (N.leb_spec y (vh v1)); [|lia].
    match goal with |- context [gloop fuel ?f _] => set (stepR := f) end.
    assert (L : forall n x off tr0 fu, 1 <= x -> x + N.of_nat n = vw v1 + 1 -> off < two32 -> (n < fu)%nat ->
              gloop fu stepR (to_gof (set_trace v1 tr0), off, x) =
              match redraw_row (set_trace v1 tr0) (seqN x (N.of_nat n)) off y with
              | Ok v' => GOk (inl (to_gof v', w32 (off + 3 * N.of_nat n), vw v1 + 1))
              | PanicOOB => GPanic
              end).
    { induction n as [|n IH]; intros x off tr0 fu Hx Hxn Hoff Hfu; (destruct fu as [|fu]; [lia|]).
      - cbn [N.of_nat]. rewrite seqN_0. cbn [redraw_row].
        rewrite gloop_break with (s' := (to_gof (set_trace v1 tr0), off, x)).
        + rewrite N.mul_0_r, N.add_0_r, (w32_small off Hoff). repeat f_equal. lia.
        + unfold stepR. gproj. destruct (N.leb_spec x (vw v1)); [lia|reflexivity].
      - rewrite seqN_cons by lia. cbn [redraw_row]. gproj.
        rewrite gloop_S. unfold stepR at 1. cbv beta iota zeta. gstep.
        destruct (N.leb_spec x (vw v1)); [|lia].
        rewrite <- getN_gidx. destruct (getN (data v1) off) as [a|]; [|reflexivity]. gstep.
        rewrite <- getN_gidx. destruct (getN (data v1) (w32 (off + 1))) as [b|]; [|reflexivity]. gstep.
        rewrite <- getN_gidx. destruct (getN (data v1) (w32 (off + 2))) as [c|]; [|reflexivity]. gstep.
        rewrite Ha1. gstep.
        rewrite emit_set_trace.
        rewrite (w32_small (x + 1)) by (unfold two32; lia).
        replace (N.of_nat (S n) - 1) with (N.of_nat n) by lia.
        rewrite (IH (x + 1) (w32 (off + 3)) (CWrite a b c x y :: tr0) fu ltac:(lia) ltac:(lia) (w32_lt _) ltac:(lia)).
        destruct (redraw_row _ _ _ _); [|reflexivity].
        replace (w32 (w32 (off + 3) + 3 * N.of_nat n)) with (w32 (off + 3 * N.of_nat (S n))) by (unfold w32, two32; lia).
        reflexivity. }
    change (w32 1) with 1.
    rewrite (L (N.to_nat (vw v1)) 1 _ tr fuel ltac:(lia) ltac:(lia) (w32_lt _) ltac:(lia)).
    rewrite N2Nat.id.
    destruct (redraw_row _ _ _ _); [|reflexivity].
    cbv beta iota. rewrite (w32_small (y + 1)) by (unfold two32; lia). reflexivity. }
  (* the outer loop *)
  assert (LO : forall m y tr fu, 1 <= y -> y + N.of_nat m = vh v1 + 1 -> (m < fu)%nat ->
            gloop fu stepO (to_gof (set_trace v1 tr), y) =
            match redraw_rows (set_trace v1 tr) (seqN y (N.of_nat m)) with
            | Ok v' => GOk (inl (to_gof v', vh v1 + 1))
            | PanicOOB => GPanic
            end).
  { induction m as [|m IH]; intros y tr fu Hy Hym Hfu; (destruct fu as [|fu]; [lia|]).
    - cbn [N.of_nat]. rewrite seqN_0. cbn [redraw_rows].
      rewrite gloop_break with (s' := (to_gof (set_trace v1 tr), y)); [repeat f_equal; lia|].
      unfold stepO. gproj. destruct (N.leb_spec y (vh v1)); [lia|reflexivity].
    - rewrite seqN_cons by lia. cbn [redraw_rows]. gproj.
      rewrite gloop_S, (Row tr y Hy ltac:(lia)).
      destruct (redraw_row _ _ _ _) as [v2|] eqn:E2; [|reflexivity]. cbn [bind].
      destruct (redraw_row_shape _ _ _ _ _ _ E2) as (tr2 & ->).
      replace (N.of_nat (S m) - 1) with (N.of_nat m) by lia.
      apply IH; lia. }
  change (w32 1) with 1.
  replace (to_gof v1) with (to_gof (set_trace v1 (trace v1))) by (destruct v1; reflexivity).
  rewrite (LO (N.to_nat (vh v1)) 1 (trace v1) fuel ltac:(lia) ltac:(lia) ltac:(lia)).
  rewrite N2Nat.id.
  replace (set_trace v1 (trace v1)) with v1 by (destruct v1; reflexivity).
  destruct (redraw_rows v1 _); reflexivity.
Qed.

(** ---- AttachTo ---- *)
(** a nil console: nothing happens *)
Theorem attachTo_nil_is_translation v fuel fg bg w h :
  go_tty_VT_AttachTo fuel (to_gof v) false fg bg w h = GOk (to_gof v, tt).
Proof. reflexivity. Qed.

(** a console reporting Dimensions(Characters) = (w, h), DefaultColors() = (fg, bg) *)
Theorem attachTo_is_translation v w h fg bg fuel :
  (N.to_nat two32 < fuel)%nat ->
  go_tty_VT_AttachTo fuel (to_gof v) true fg bg w h = res_unit (attach v w h fg bg).
Proof.
  intros Hfuel.
  cbv delta [go_tty_VT_AttachTo attach]. cbv beta zeta. cbn [negb].
  set (th' := w32 (h + sb v)).
  set (V0 := mkVT true w h w th' (sb v) (tabw v) fg bg fg bg 1 1 0 (doff v) (st v) (data v) (trace v)).
  match goal with |- context [f_VT_termWidth ?c] => set (C := c) end.
  assert (EC : C = to_gof V0) by reflexivity.
  clearbody C. subst C. gstep. change (tw V0) with w. change (th V0) with th'. set (len := w32 (w32 (w * th') * 3)).
  assert (Hlen : len < two32) by apply w32_lt. unfold two32 in *.
  unfold gmake. destruct (N.ltb_spec len (2 ^ 63)); [|change (2 ^ 63) with 9223372036854775808 in *; lia].
  gstep.
  match goal with |- context [gloop fuel ?f _] => set (stepA := f) end.
  change (w64 0) with 0.
  match goal with |- context [gloop fuel stepA (?g, 0)] =>
    change g with (to_gof (set_data V0 (repeat 0 (N.to_nat len)))) end.
  assert (H63 : len + 3 <= two63) by (unfold two63; change (2 ^ 63) with 9223372036854775808; lia).
  rewrite (blank_gloop (fun d => to_gof (set_data V0 d)) stepA (N.to_nat len) len fg bg)
    with (n := N.to_nat ((len + 2) / 3));
    [ | | exact H63 | apply repeat_length | lia | f_equal; f_equal; lia | lia ].
  2:{ intros d o Hd Ho. unfold stepA. gproj. unfold glen. rewrite Hd, N2Nat.id.
      assert (Hd63 : lenN d < two63) by (rewrite lenN_length; lia).
      rewrite gslt_small by lia. unfold two63 in Ho. change (2 ^ 63) with 9223372036854775808 in Ho.
      change (gw 8 32) with 32.
      rewrite gsets_setN by exact Hd63.
      destruct (setN d o 32) as [da|] eqn:Ea; [|reflexivity].
      gstep. change (dfg V0) with fg. rewrite (w64_small (o + 1)) by (unfold two64; lia).
      rewrite gsets_setN by (rewrite lenN_length, (setN_length _ _ _ _ Ea), <- lenN_length; exact Hd63).
      destruct (setN da (o + 1) fg) as [db|] eqn:Eb; [|reflexivity].
      gstep. change (dbg V0) with bg. rewrite (w64_small (o + 2)) by (unfold two64; lia).
      rewrite gsets_setN
        by (rewrite lenN_length, (setN_length _ _ _ _ Eb), (setN_length _ _ _ _ Ea), <- lenN_length; exact Hd63).
      destruct (setN db (o + 2) bg) as [dc|]; [|reflexivity].
      gstep. rewrite (w64_small (o + 3)) by (unfold two64; lia). reflexivity. }
  rewrite attach_fill_is_loop.
  destruct (len mod 3 =? 0); reflexivity.
Qed.

(** ---- the preconditions are kept along a history (so the equalities chain) ---- *)
Lemma redraw_rows_shape v : forall ys tr v', redraw_rows (set_trace v tr) ys = Ok v' -> exists tr', v' = set_trace v tr'.
Proof.
  induction ys as [|y r IH]; intros tr v' E; cbn [redraw_rows] in E.
  - injection E as <-. eauto.
  - destruct (redraw_row _ _ _ _) as [v1|] eqn:E1; [|discriminate]. cbn [bind] in E.
    change (vw (set_trace v tr)) with (vw v) in E1. change (vy (set_trace v tr)) with (vy v) in E1.
    destruct (redraw_row_shape v y _ tr _ _ E1) as (tr1 & ->). eapply IH. exact E.
Qed.

Lemma set_state_frame v s v' : set_state v s = Ok v' -> frame v v'.
Proof.
  unfold set_state. destruct (st v =? s); [intros E; injection E as <-; apply frame_refl|].
  destruct ((s =? tty_StateActive) && attached (set_st v s)).
  - intros E. replace (set_st v s) with (set_trace (set_st v s) (trace (set_st v s))) in E by (destruct v; reflexivity).
    destruct (redraw_rows_shape _ _ _ _ E) as (tr' & ->).
    apply (frame_trans _ (set_st v s)); [apply frame_set_st|]. unfold frame, set_trace. gproj. auto.
  - intros E. injection E as <-. apply frame_set_st.
Qed.

Theorem vt_pre_kept :
  (forall v b v' e, write_byte v b = Ok (v', e) -> vt_pre v -> vt_pre v' /\ tabw v' = tabw v /\ vt_fuel v' = vt_fuel v) /\
  (forall v x y, vt_pre v -> vt_pre (set_cursor_position v x y) /\ tabw (set_cursor_position v x y) = tabw v /\
                 vt_fuel (set_cursor_position v x y) = vt_fuel v) /\
  (forall v s v', set_state v s = Ok v' -> vt_pre v -> vt_pre v' /\ tabw v' = tabw v /\ vt_fuel v' = vt_fuel v) /\
  (forall v w h fg bg v', attach v w h fg bg = Ok v' -> w32 (w * 3) < 2 ^ 31 -> vt_pre v' /\ tabw v' = tabw v).
Proof.
  split; [|split; [|split]].
  - intros v b v' e E Hp. pose proof (write_byte_frame _ _ _ _ E) as F.
    split; [exact (vt_pre_frame _ _ F Hp)|]. split; [destruct F as (_ & _ & F3 & _); exact F3|exact (vt_fuel_frame _ _ F)].
  - intros v x y Hp. pose proof (scp_frame v x y) as F.
    split; [exact (vt_pre_frame _ _ F Hp)|]. split; [destruct F as (_ & _ & F3 & _); exact F3|exact (vt_fuel_frame _ _ F)].
  - intros v s v' E Hp. pose proof (set_state_frame _ _ _ E) as F.
    split; [exact (vt_pre_frame _ _ F Hp)|]. split; [destruct F as (_ & _ & F3 & _); exact F3|exact (vt_fuel_frame _ _ F)].
  - intros v w h fg bg v' E Hw. unfold attach in E.
    destruct (_ mod 3 =? 0); [|discriminate]. injection E as <-.
    split; [|reflexivity]. unfold vt_pre, stride_of. gproj.
    split; [reflexivity|]. split; [|exact Hw].
    rewrite lenN_length, blank_cells_length.
    pose proof (w32_lt (w32 (w * w32 (h + sb v)) * 3)) as B. unfold two32 in B. unfold two63.
    change (2 ^ 63) with 9223372036854775808. lia.
Qed.
