(** Every cell of the reference terminal holds bytes (character, foreground, background < 256) as
    long as the default colours and the written bytes are bytes; hence every console call the
    terminal is expected to make carries bytes.  Needed to run the calls through the framebuffer
    driver model (glyph index and palette index in range). *)
From Coq Require Import NArith ZArith List Bool Lia.
From Coq Require Import ZifyBool ZifyN ZifyNat.
From FF Require Import Lib.Word Gen.Consts_device_tty Console.Grid
     Tty.Vt Tty.VtSpec Tty.VtConsSpec Tty.ListFacts Tty.VtProofs Tty.VtCons Tty.VtConsProofs.
Import ListNotations.
Local Open Scope N_scope.

Definition small_cell (c : cell) : Prop := let '(ch, f, b) := c in ch < 256 /\ f < 256 /\ b < 256.

Definition call_small (k : ccall) : Prop :=
  match k with
  | CWrite ch f b _ _ => ch < 256 /\ f < 256 /\ b < 256
  | CFill _ _ _ _ f b => f < 256 /\ b < 256
  | CScroll _ _ => True
  end.

Section Small.
Variables (w h s tab fg bg : N).
Hypothesis Hw : 1 <= w.
Hypothesis Hh : 1 <= h.
Hypothesis Hfg : fg < 256.
Hypothesis Hbg : bg < 256.

Notation RInv := (RInv w h s fg bg).

Definition Small (r : rterm) : Prop :=
  forall i j, i < h + s -> j < w -> small_cell (lcell (r_lines r) i j).

Lemma small_blank : small_cell (blank fg bg).
Proof. unfold blank, small_cell. lia. Qed.

Lemma small_cursor r x y : Small r -> Small (mkR (r_lines r) (r_view r) x y).
Proof. intros H. exact H. Qed.

Lemma small_put r c : RInv r -> Small r -> small_cell c -> Small (r_put r c).
Proof.
  intros (L & LW & X & Y & V & B) S Hc i j Hi Hj. unfold r_put. cbn [r_lines].
  rewrite (lcell_upd w h Hw Hh); [|lia|rewrite LW; lia].
  destruct ((i =? r_view r + r_y r - 1) && (j =? r_x r - 1)); [exact Hc|now apply S].
Qed.

Lemma small_lf r : RInv r -> Small r -> Small (r_lf w h s fg bg r).
Proof.
  intros (L & LW & X & Y & V & B) S. unfold r_lf.
  destruct (r_y r <? h); [exact S|]. destruct (N.ltb_spec (r_view r + h) (h + s)) as [C|C]; [exact S|].
  intros i j Hi Hj. cbn [r_lines]. unfold lcell.
  rewrite (scroll_rows (r_lines r) (blank_line w fg bg) (h + s) (r_view r) L) by lia.
  destruct (N.ltb_spec i (r_view r)); [now apply S|].
  destruct (N.ltb_spec i (h + s - 1)); [apply (S (i + 1) j); lia|].
  unfold blank_line. rewrite nth_repeat_lt by lia. apply small_blank.
Qed.

Lemma small_init : Small (r_init w h s fg bg).
Proof.
  intros i j Hi Hj. unfold r_init, lcell. cbn [r_lines].
  rewrite nth_repeat_lt by lia. unfold blank_line. rewrite nth_repeat_lt by lia. apply small_blank.
Qed.

(** the expected calls carry bytes: an instance of the induction over the primitives ([run_ind]) *)
Lemma small_run ops st r : RInv r -> Small r -> Forall op_wf ops ->
  Small (fold_left (r_step w h s tab fg bg) ops r) /\
  Forall call_small (e_run w h s tab fg bg st r ops).
Proof.
  intros I S WF.
  refine (proj2 (run_ind w h s tab fg bg Hw Hh small_cell
                   (fun _ r cs _ r' => Small r -> Small r' /\ Forall call_small cs) small_blank _ _ _ _ _ _
                   ops st r I WF) S).
  - intros b Hb. cbn. lia.
  - intros st0 r0 x y _ _ _ S0. split; [exact S0|constructor].
  - intros st0 r0 c I0 Hc S0. split; [now apply small_put|].
    unfold e_put. destruct (st0 =? _); [|constructor]. destruct c as [[ch f] b]. constructor; [exact Hc|constructor].
  - intros st0 r0 I0 S0. split; [now apply small_lf|].
    unfold e_lf. destruct (r_y r0 <? h); [constructor|]. destruct (st0 =? _); [|constructor].
    repeat constructor; assumption.
  - intros st0 r0 s' I0 S0. split; [exact S0|].
    destruct (st0 =? s'); [constructor|]. destruct (s' =? tty_StateActive); [|constructor].
    pose proof I0 as (_ & _ & _ & _ & V & _).
    unfold e_redraw. apply Forall_forall. intros k Hk. apply in_flat_map in Hk as (y0 & Hy0 & Hk).
    apply in_map_iff in Hk as (x0 & <- & Hx0). apply in_seqN in Hy0. apply in_seqN in Hx0.
    rewrite r_cell_lcell. pose proof (S0 (r_view r0 + y0 - 1) (x0 - 1) ltac:(lia) ltac:(lia)) as Sc.
    destruct (lcell (r_lines r0) (r_view r0 + y0 - 1) (x0 - 1)) as [[ch f] b]. exact Sc.
  - intros st0 r0 a st1 r1 b st2 r2 P1 P2 S0. destruct (P1 S0) as (S1 & A). destruct (P2 S1) as (S2 & B).
    split; [exact S2|]. apply Forall_app. auto.
Qed.

End Small.
