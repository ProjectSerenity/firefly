(** C18: an ideal (cell-level) console driven by the calls of the reference terminal stays equal to
    the reference terminal's viewport (reference level), and the model of vt.go makes exactly those
    calls (Tty/VtProofs.v) — hence the model + console composition of Tty/VtCons.v is in sync.
    Every fact about the calls a history makes (here: the console stays in sync, the calls lie inside
    the grid) is an instance of one induction over the primitives of the reference terminal, [run_ind]. *)
From Coq Require Import NArith ZArith List Bool Lia.
From Coq Require Import ZifyBool ZifyN ZifyNat.
From FF Require Import Lib.Word Gen.Consts_device_tty Console.Grid
     Tty.Vt Tty.VtSpec Tty.VtConsSpec Tty.ListFacts Tty.VtProofs Tty.VtCons.
Import ListNotations.
Local Open Scope N_scope.

(** ---- calls on a grid ---- *)
Lemma calls_rel_app g a b g'' :
  calls_rel g (a ++ b) g'' <-> exists g', calls_rel g a g' /\ calls_rel g' b g''.
Proof.
  revert g. induction a as [|c a IH]; intros g; cbn [app].
  - split.
    + intros H. exists g. split; [constructor|exact H].
    + intros (g' & H1 & H2). inversion H1; subst. exact H2.
  - split.
    + intros H. inversion H as [|g0 c0 junk cs g0' H1]; subst.
      apply IH in H1 as (g' & H1 & H2). exists g'. split; [econstructor; exact H1|exact H2].
    + intros (g' & H1 & H2). inversion H1 as [|g0 c0 junk cs g0' H1']; subst.
      econstructor. apply IH. exists g'. split; [exact H1'|exact H2].
Qed.

Lemma calls_rel_nil g g' : calls_rel g [] g' -> g' = g.
Proof. intros H. now inversion H. Qed.

Lemma apply_call_dims junk (g : cgrid) c : gw (apply_call junk g c) = gw g /\ gh (apply_call junk g c) = gh g.
Proof.
  destruct c as [ch f b x y|x y wd ht f b|d n]; cbn [apply_call].
  - apply g_write_dims.
  - apply g_fill_dims.
  - destruct (dir_of d); [apply g_scroll_dims|auto].
Qed.

Lemma calls_rel_dims g cs g' : calls_rel g cs g' -> gw g' = gw g /\ gh g' = gh g.
Proof.
  induction 1 as [g|g c junk cs g' H IH]; [auto|].
  destruct (apply_call_dims junk g c) as (A & B). rewrite <- A, <- B. exact IH.
Qed.

Lemma apply_write_cell junk (g : cgrid) ch f b x0 y0 x y :
  1 <= x0 <= gw g -> 1 <= y0 <= gh g ->
  gcell (apply_call junk g (CWrite ch f b x0 y0)) x y =
  if (x =? x0) && (y =? y0) then (ch, f, b) else gcell g x y.
Proof.
  intros Hx Hy. cbn [apply_call]. unfold g_write.
  replace (in_grid g x0 y0) with true; [reflexivity|].
  unfold in_grid. symmetry. rewrite !andb_true_iff, !N.leb_le. lia.
Qed.

(** the pair of calls of a line feed on the last viewport line: scroll up by one, clear the last line *)
Lemma apply_lf_cells j1 j2 (g : cgrid) w h fg bg x y :
  gw g = w -> gh g = h -> 1 <= w -> 1 <= h -> 1 <= x <= w -> 1 <= y <= h ->
  gcell (apply_call j2 (apply_call j1 g (CScroll console_ScrollDirUp 1)) (CFill 1 h w 1 fg bg)) x y =
  if y <? h then gcell g x (y + 1) else (32, fg, bg).
Proof.
  intros Gw Gh Hw Hh Hx Hy.
  cbn [apply_call]. unfold dir_of. rewrite N.eqb_refl.
  unfold g_scroll. replace (scroll_ok g 1) with true
    by (unfold scroll_ok; symmetry; rewrite andb_true_iff, !N.leb_le; lia).
  unfold g_fill. cbn [gcell gw gh].
  match goal with |- (if ?c then _ else _) = _ => destruct c eqn:F end.
  - apply in_fill_spec in F. cbn [gw gh] in F. rewrite Gw, Gh in F. unfold clamp1 in F.
    destruct (N.eqb_spec 1 0); [lia|]. destruct (N.eqb_spec h 0); [lia|].
    destruct (N.leb_spec h h); [|lia].
    destruct (N.ltb_spec y h); [|reflexivity].
    destruct (N.leb_spec w 1); lia.
  - destruct (N.ltb_spec y h) as [A|A].
    + rewrite Gh. destruct (N.leb_spec (y + 1) h); [reflexivity|lia].
    + exfalso. assert (T : in_fill (mkGrid (gw g) (gh g)
               (fun x0 y0 : N => if y0 + 1 <=? gh g then gcell g x0 (y0 + 1) else j1 x0 y0)) 1 h w 1 x y = true);
        [|congruence].
      apply in_fill_spec. cbn [gw gh]. rewrite Gw, Gh. unfold clamp1.
      destruct (N.eqb_spec 1 0); [lia|]. destruct (N.eqb_spec h 0); [lia|].
      destruct (N.leb_spec h h); [|lia]. destruct (N.leb_spec w 1); lia.
Qed.

(** ---- the activation redraw, from ANY console content ---- *)
Definition is_at (c : ccall) (x y : N) : bool :=
  match c with CWrite _ _ _ x' y' => (x' =? x) && (y' =? y) | _ => false end.

Lemma writes_result (F : N -> N -> cell) (w h : N) cs : forall (g g' : cgrid),
  gw g = w -> gh g = h ->
  Forall (fun c => exists x y, 1 <= x <= w /\ 1 <= y <= h /\ c = write_call (F x y) x y) cs ->
  calls_rel g cs g' ->
  forall x y, gcell g' x y = if existsb (fun c => is_at c x y) cs then F x y else gcell g x y.
Proof.
  induction cs as [|c t IH]; intros g g' Gw Gh HF H x y.
  - apply calls_rel_nil in H. now subst.
  - inversion HF as [|c' t' (x0 & y0 & Hx0 & Hy0 & Ec) HF' Eq]. subst c' t'.
    inversion H as [|g0 c0 junk cs g0' H1 Eg Ec0 Eg']. subst g0 c0 cs g0'. subst c.
    destruct (apply_call_dims junk g (write_call (F x0 y0) x0 y0)) as (A1 & A2).
    rewrite Gw in A1. rewrite Gh in A2. rewrite (IH _ g' A1 A2 HF' H1 x y).
    cbn [existsb]. destruct (existsb (fun c => is_at c x y) t); [now rewrite orb_true_r|].
    rewrite orb_false_r. destruct (F x0 y0) as [[ch f] b] eqn:EF. cbn [write_call is_at].
    rewrite apply_write_cell by lia.
    replace (x0 =? x) with (x =? x0) by apply N.eqb_sym.
    replace (y0 =? y) with (y =? y0) by apply N.eqb_sym.
    destruct ((x =? x0) && (y =? y0)) eqn:E; [|reflexivity].
    apply andb_true_iff in E as (E1 & E2). apply N.eqb_eq in E1. apply N.eqb_eq in E2. subst x y.
    now rewrite EF.
Qed.

Lemma seqN_in x a n : a <= x < a + n -> In x (seqN a n).
Proof.
  intros H. unfold seqN. apply in_map_iff. exists (N.to_nat x). split; [lia|]. apply in_seq. lia.
Qed.

Lemma redraw_result w h r (g g' : cgrid) :
  gw g = w -> gh g = h -> calls_rel g (e_redraw w h r) g' ->
  gw g' = w /\ gh g' = h /\ forall x y, 1 <= x <= w -> 1 <= y <= h -> gcell g' x y = r_cell r x y.
Proof.
  intros Gw Gh H. destruct (calls_rel_dims _ _ _ H) as (D1 & D2).
  split; [congruence|]. split; [congruence|]. intros x y Hx Hy.
  rewrite (writes_result (r_cell r) w h (e_redraw w h r) g g' Gw Gh); [| |exact H].
  - replace (existsb (fun c => is_at c x y) (e_redraw w h r)) with true; [reflexivity|].
    symmetry. apply existsb_exists. exists (write_call (r_cell r x y) x y). split.
    + unfold e_redraw. apply in_flat_map. exists y. split; [apply seqN_in; lia|].
      apply in_map_iff. exists x. split; [reflexivity|apply seqN_in; lia].
    + destruct (r_cell r x y) as [[ch f] b]. cbn [write_call is_at]. now rewrite !N.eqb_refl.
  - unfold e_redraw. apply Forall_forall. intros c Hc. apply in_flat_map in Hc as (y0 & Hy0 & Hc).
    apply in_map_iff in Hc as (x0 & <- & Hx0). apply in_seqN in Hy0. apply in_seqN in Hx0.
    exists x0, y0. repeat split; lia.
Qed.

Section RefLevel.
Variables (w h s tab fg bg : N).
Hypothesis Hw : 1 <= w.
Hypothesis Hh : 1 <= h.

(** ---- invariant of the reference terminal ---- *)
Definition RInv (r : rterm) : Prop :=
  length (r_lines r) = N.to_nat (h + s) /\
  (forall i, i < h + s -> length (nth (N.to_nat i) (r_lines r) []) = N.to_nat w) /\
  1 <= r_x r <= w /\ 1 <= r_y r <= h /\ r_view r + h <= h + s /\
  (forall i j, r_view r + h <= i -> i < h + s -> j < w -> lcell (r_lines r) i j = (32, fg, bg)).

Lemma r_cell_lcell r x y : r_cell r x y = lcell (r_lines r) (r_view r + y - 1) (x - 1).
Proof. reflexivity. Qed.

Lemma lcell_upd ls i0 j0 c i j :
  (N.to_nat i0 < length ls)%nat -> (N.to_nat j0 < length (nth (N.to_nat i0) ls []))%nat ->
  lcell (upd ls (N.to_nat i0) (fun ln => upd ln (N.to_nat j0) (fun _ => c))) i j =
  if (i =? i0) && (j =? j0) then c else lcell ls i j.
Proof.
  intros Hi Hj. unfold lcell.
  destruct (N.eqb_spec i i0) as [->|Ni]; cbn [andb].
  - rewrite upd_nth_same by assumption.
    destruct (N.eqb_spec j j0) as [->|Nj].
    + now rewrite upd_nth_same.
    + rewrite upd_nth_other by lia. reflexivity.
  - rewrite upd_nth_other by lia. reflexivity.
Qed.

Lemma rinv_cursor r x y :
  RInv r -> 1 <= x <= w -> 1 <= y <= h -> RInv (mkR (r_lines r) (r_view r) x y).
Proof. intros (L & LW & _ & _ & V & B) Hx Hy. unfold RInv. cbn [r_lines r_view r_x r_y]. auto 10. Qed.

Lemma rinv_put r c : RInv r -> RInv (r_put r c).
Proof.
  intros (L & LW & X & Y & V & B). unfold RInv, r_put. cbn [r_lines r_view r_x r_y].
  split; [now rewrite upd_length|]. split; [|split; [exact X|split; [exact Y|split; [exact V|]]]].
  - intros i Hi. destruct (N.eq_dec i (r_view r + r_y r - 1)) as [->|Ne].
    + rewrite upd_nth_same by lia. rewrite upd_length. apply LW. lia.
    + rewrite upd_nth_other by lia. now apply LW.
  - intros i j Hi1 Hi2 Hj. rewrite lcell_upd; [|lia|rewrite LW; lia].
    destruct (N.eqb_spec i (r_view r + r_y r - 1)); [lia|]. cbn [andb]. now apply B.
Qed.

Lemma r_cell_put r c x y : RInv r -> 1 <= y ->
  r_cell (r_put r c) x y = if (x =? r_x r) && (y =? r_y r) then c else
                           if x =? 0 then r_cell (r_put r c) x y else r_cell r x y.
Proof.
  intros (L & LW & X & Y & V & B) Hy.
  destruct (N.eqb_spec x 0) as [->|Nx].
  { destruct (N.eqb_spec 0 (r_x r)); [lia|]. reflexivity. }
  rewrite !r_cell_lcell. unfold r_put at 1 2. cbn [r_lines r_view].
  rewrite lcell_upd; [|lia|rewrite LW; lia].
  destruct (N.eqb_spec (r_view r + y - 1) (r_view r + r_y r - 1));
    destruct (N.eqb_spec y (r_y r)); try lia;
    destruct (N.eqb_spec (x - 1) (r_x r - 1)); destruct (N.eqb_spec x (r_x r)); try lia; reflexivity.
Qed.

Lemma rinv_lf r : RInv r -> RInv (r_lf w h s fg bg r).
Proof.
  intros (L & LW & X & Y & V & B). unfold r_lf.
  destruct (N.ltb_spec (r_y r) h) as [A|A].
  - unfold RInv. cbn [r_lines r_view r_x r_y]. repeat split; try assumption; lia.
  - destruct (N.ltb_spec (r_view r + h) (h + s)) as [C|C].
    + unfold RInv. cbn [r_lines r_view r_x r_y]. repeat split; try assumption; try lia.
      intros i j Hi1 Hi2 Hj. apply B; lia.
    + unfold RInv. cbn [r_lines r_view r_x r_y].
      pose proof (scroll_rows (r_lines r) (blank_line w fg bg) (h + s) (r_view r) L ltac:(lia)) as Hrow.
      split; [apply scroll_length; [assumption|lia]|].
      split; [|split; [lia|split; [lia|split; [lia|intros; lia]]]].
      intros i Hi. rewrite Hrow by assumption.
      destruct (N.ltb_spec i (r_view r)); [now apply LW|].
      destruct (N.ltb_spec i (h + s - 1)); [apply LW; lia|].
      unfold blank_line. now rewrite repeat_length.
Qed.

(** after a line feed on the last viewport line every viewport line shows what the next one
    showed, and the last line is blank *)
Lemma r_cell_lf_last r x y : RInv r -> r_y r = h -> 1 <= x <= w -> 1 <= y <= h ->
  r_cell (r_lf w h s fg bg r) x y = if y <? h then r_cell r x (y + 1) else (32, fg, bg).
Proof.
  intros (L & LW & X & Y & V & B) Ey Hx Hy. unfold r_lf.
  destruct (N.ltb_spec (r_y r) h) as [A|_]; [lia|].
  destruct (N.ltb_spec (r_view r + h) (h + s)) as [C|C].
  - rewrite !r_cell_lcell. cbn [r_lines r_view].
    destruct (N.ltb_spec y h) as [D|D].
    + f_equal. lia.
    + replace (r_view r + 1 + y - 1) with (r_view r + h) by lia. apply B; lia.
  - rewrite !r_cell_lcell. cbn [r_lines r_view]. unfold lcell.
    rewrite (scroll_rows (r_lines r) (blank_line w fg bg) (h + s) (r_view r) L) by lia.
    destruct (N.ltb_spec (r_view r + y - 1) (r_view r)); [lia|].
    destruct (N.ltb_spec (r_view r + y - 1) (h + s - 1)); destruct (N.ltb_spec y h); try lia.
    + do 2 f_equal. lia.
    + unfold blank_line. rewrite nth_repeat_lt by lia. reflexivity.
Qed.

Lemma r_cell_lf_next r x y : r_y r < h -> r_cell (r_lf w h s fg bg r) x y = r_cell r x y.
Proof.
  intros A. unfold r_lf. destruct (N.ltb_spec (r_y r) h); [reflexivity|lia].
Qed.

(** ---- the console stays equal to the viewport ---- *)
Definition Sync (act : bool) (r : rterm) (g : cgrid) : Prop :=
  gw g = w /\ gh g = h /\
  (act = true -> forall x y, 1 <= x <= w -> 1 <= y <= h -> gcell g x y = r_cell r x y).

Lemma sync_cursor act r g x y : Sync act r g -> Sync act (mkR (r_lines r) (r_view r) x y) g.
Proof. intros H. exact H. Qed.

Lemma sync_put act r g c g' :
  RInv r -> Sync act r g -> calls_rel g (e_put act r c) g' -> Sync act (r_put r c) g'.
Proof.
  intros I (Gw & Gh & S) H. pose proof I as (L & LW & X & Y & V & B). unfold e_put in H.
  destruct act.
  - inversion H as [|g0 c0 junk cs g0' H1]; subst. apply calls_rel_nil in H1. subst g'.
    destruct c as [[ch f] b]. cbn [write_call].
    destruct (apply_call_dims junk g (CWrite ch f b (r_x r) (r_y r))) as (A1 & A2).
    split; [congruence|]. split; [congruence|]. intros _ x y Hx Hy.
    rewrite apply_write_cell by lia. rewrite r_cell_put by (assumption || lia).
    destruct ((x =? r_x r) && (y =? r_y r)); [reflexivity|].
    destruct (N.eqb_spec x 0); [lia|]. now apply S.
  - apply calls_rel_nil in H. subst g'. split; [assumption|]. split; [assumption|]. discriminate.
Qed.

Lemma sync_lf act r g g' :
  RInv r -> Sync act r g -> calls_rel g (e_lf w h fg bg act r) g' -> Sync act (r_lf w h s fg bg r) g'.
Proof.
  intros I (Gw & Gh & S) H. pose proof I as (L & LW & X & Y & V & B). unfold e_lf in H.
  destruct (N.ltb_spec (r_y r) h) as [A|A].
  - apply calls_rel_nil in H. subst g'. split; [assumption|]. split; [assumption|].
    intros Ha x y Hx Hy. rewrite r_cell_lf_next by assumption. now apply S.
  - destruct act.
    + inversion H as [|g0 c0 j1 cs g0' H1]; subst.
      inversion H1 as [|g1 c1 j2 cs1 g1' H2]; subst. apply calls_rel_nil in H2. subst g'.
      assert (Ey : r_y r = h) by lia. rewrite Ey.
      match goal with |- Sync _ _ ?G => assert (D : gw G = w /\ gh G = h) end.
      { destruct (apply_call_dims j2 (apply_call j1 g (CScroll console_ScrollDirUp 1)) (CFill 1 h w 1 fg bg)) as (A1 & A2).
        destruct (apply_call_dims j1 g (CScroll console_ScrollDirUp 1)) as (A3 & A4). split; congruence. }
      split; [apply D|]. split; [apply D|]. intros _ x y Hx Hy.
      rewrite apply_lf_cells by assumption. rewrite r_cell_lf_last by assumption.
      destruct (N.ltb_spec y h); [|reflexivity]. apply S; [reflexivity|lia|lia].
    + apply calls_rel_nil in H. subst g'. split; [assumption|]. split; [assumption|]. discriminate.
Qed.

End RefLevel.

Section RefLevel2.
Variables (w h s tab fg bg : N).
Hypothesis Hw : 1 <= w.
Hypothesis Hh : 1 <= h.

Notation RInv := (RInv w h s fg bg).
Notation Sync := (Sync w h).

(** ---- one induction for every fact about the calls a history makes ----
    The reference terminal and the calls expected of it are built from four primitives: moving the cursor, storing a
    cell at the cursor ([r_put], [e_put]), the line feed ([r_lf], [e_lf]) and the change of state (with the redraw on
    activation).  A relation [P st r cs st' r'] between state byte and terminal, the calls made, and the state byte and
    terminal reached that holds of the primitives (on terminals satisfying [RInv], for cells satisfying [Q]) and is
    closed under sequencing holds of every history; [RInv] is kept along the way. *)
Section RunInd.
Variables (Q : cell -> Prop) (P : N -> rterm -> list ccall -> N -> rterm -> Prop).
Hypothesis Q_blank : Q (blank fg bg).
Hypothesis Q_byte : forall b, b < 256 -> Q (b, fg, bg).
Hypothesis P_move : forall st r x y, RInv r -> 1 <= x <= w -> 1 <= y <= h ->
  P st r [] st (mkR (r_lines r) (r_view r) x y).
Hypothesis P_put : forall st r c, RInv r -> Q c -> P st r (e_put (st =? tty_StateActive) r c) st (r_put r c).
Hypothesis P_lf : forall st r, RInv r -> P st r (e_lf w h fg bg (st =? tty_StateActive) r) st (r_lf w h s fg bg r).
Hypothesis P_state : forall st r s', RInv r ->
  P st r (if st =? s' then [] else if s' =? tty_StateActive then e_redraw w h r else []) s' r.
Hypothesis P_seq : forall st r a st1 r1 b st2 r2, P st r a st1 r1 -> P st1 r1 b st2 r2 -> P st r (a ++ b) st2 r2.

Lemma P_nil st r : RInv r -> P st r [] st r.
Proof. intros I. pose proof I as (_ & _ & X & Y & _). destruct r. now apply (P_move st _ _ _ I). Qed.

Lemma putc_ind st r c : RInv r -> Q c ->
  RInv (r_putc w h s fg bg r c) /\
  P st r (e_putc w h fg bg (st =? tty_StateActive) r c) st (r_putc w h s fg bg r c).
Proof.
  intros I Hc. pose proof I as (_ & _ & X & _).
  assert (I1 : RInv (r_put r c)) by (apply rinv_put; assumption).
  unfold r_putc, e_putc. destruct (N.ltb_spec (r_x r) w) as [A|A].
  - assert (B : 1 <= r_x r + 1 <= w) by lia.
    split; [apply (rinv_cursor w h s fg bg (r_put r c)); [exact I1|exact B|apply I1]|].
    exact (P_seq _ _ _ _ _ _ _ _ (P_put st r c I Hc) (P_move st (r_put r c) _ _ I1 B ltac:(apply I1))).
  - split; [apply rinv_lf; assumption|]. exact (P_seq _ _ _ _ _ _ _ _ (P_put st r c I Hc) (P_lf st _ I1)).
Qed.

Lemma iter_ind st n : forall r, RInv r ->
  RInv (iter_n n (fun r => r_putc w h s fg bg r (blank fg bg)) r) /\
  P st r (e_iter w h s fg bg (st =? tty_StateActive) n r) st (iter_n n (fun r => r_putc w h s fg bg r (blank fg bg)) r).
Proof.
  induction n as [|n IH]; intros r I; cbn [e_iter iter_n]; [split; [exact I|now apply P_nil]|].
  destruct (putc_ind st r (blank fg bg) I Q_blank) as (I1 & P1). destruct (IH _ I1) as (I2 & P2).
  split; [exact I2|]. exact (P_seq _ _ _ _ _ _ _ _ P1 P2).
Qed.

Lemma byte_ind st r b : RInv r -> b < 256 ->
  RInv (r_byte w h s tab fg bg r b) /\
  P st r (e_byte w h s tab fg bg (st =? tty_StateActive) r b) st (r_byte w h s tab fg bg r b).
Proof.
  intros I Hb. pose proof I as (_ & _ & X & Y & _). unfold r_byte, e_byte.
  destruct (b =? 13); [split; [apply rinv_cursor; [exact I|lia|exact Y]|apply P_move; [exact I|lia|exact Y]]|].
  destruct (b =? 10); [split; [apply rinv_lf; assumption|now apply P_lf]|].
  destruct (b =? 8).
  { destruct (N.ltb_spec 1 (r_x r)); [|split; [exact I|now apply P_nil]].
    assert (B : 1 <= r_x r - 1 <= w) by lia. pose proof (rinv_cursor w h s fg bg r _ _ I B Y) as I1.
    split; [apply rinv_put; assumption|].
    exact (P_seq _ _ _ _ _ _ _ _ (P_move st r _ _ I B Y) (P_put st _ _ I1 Q_blank)). }
  destruct (b =? 9); [now apply iter_ind|]. apply putc_ind; [exact I|now apply Q_byte].
Qed.

Lemma bytes_ind st bs : forall r, RInv r -> Forall (fun b => b < 256) bs ->
  RInv (fold_left (r_byte w h s tab fg bg) bs r) /\
  P st r (e_bytes w h s tab fg bg (st =? tty_StateActive) r bs) st (fold_left (r_byte w h s tab fg bg) bs r).
Proof.
  induction bs as [|b t IH]; intros r I HQ; cbn [e_bytes fold_left]; [split; [exact I|now apply P_nil]|].
  inversion HQ as [|? ? Hb Ht]; subst.
  destruct (byte_ind st r b I Hb) as (I1 & P1). destruct (IH _ I1 Ht) as (I2 & P2).
  split; [exact I2|]. exact (P_seq _ _ _ _ _ _ _ _ P1 P2).
Qed.

Lemma step_ind st r o : RInv r -> op_wf o ->
  RInv (r_step w h s tab fg bg r o) /\
  P st r (e_step w h s tab fg bg st r o) (st_step st o) (r_step w h s tab fg bg r o).
Proof.
  intros I WF. destruct o as [w0 h0 f0 b0|bs|b|x y|s']; cbn [op_wf r_step e_step st_step] in *; [contradiction|..].
  - now apply bytes_ind.
  - now apply byte_ind.
  - assert (CX : 1 <= clamp 1 w x <= w).
    { unfold clamp. destruct (N.ltb_spec x 1); [lia|]. destruct (N.ltb_spec w x); lia. }
    assert (CY : 1 <= clamp 1 h y <= h).
    { unfold clamp. destruct (N.ltb_spec y 1); [lia|]. destruct (N.ltb_spec h y); lia. }
    split; [now apply rinv_cursor|now apply P_move].
  - split; [exact I|now apply P_state].
Qed.

Lemma run_ind ops : forall st r, RInv r -> Forall op_wf ops ->
  RInv (fold_left (r_step w h s tab fg bg) ops r) /\
  P st r (e_run w h s tab fg bg st r ops) (fold_left st_step ops st) (fold_left (r_step w h s tab fg bg) ops r).
Proof.
  induction ops as [|o t IH]; intros st r I WF; cbn [e_run fold_left]; [split; [exact I|now apply P_nil]|].
  inversion WF as [|? ? WFo WFt]; subst.
  destruct (step_ind st r o I WFo) as (I1 & P1). destruct (IH (st_step st o) _ I1 WFt) as (I2 & P2).
  split; [exact I2|]. exact (P_seq _ _ _ _ _ _ _ _ P1 P2).
Qed.
End RunInd.

Lemma sync_run ops st r g g' :
  RInv r -> Forall op_wf ops -> Sync (st =? tty_StateActive) r g ->
  calls_rel g (e_run w h s tab fg bg st r ops) g' ->
  Sync (fold_left st_step ops st =? tty_StateActive) (fold_left (r_step w h s tab fg bg) ops r) g'.
Proof.
  intros I WF. revert g g'.
  apply (run_ind (fun _ => True) (fun st r cs st' r' => forall g g',
           Sync (st =? tty_StateActive) r g -> calls_rel g cs g' -> Sync (st' =? tty_StateActive) r' g'));
    try exact I; try exact WF; try exact Logic.I.
  - intros. exact Logic.I.
  - intros st0 r0 x y _ _ _ g g' S H. apply calls_rel_nil in H. now subst.
  - intros st0 r0 c I0 _ g g'. now apply (sync_put w h s fg bg Hw Hh).
  - intros st0 r0 I0 g g'. now apply (sync_lf w h s fg bg Hw Hh).
  - intros st0 r0 s' _ g g' (Gw & Gh & S) H. destruct (N.eqb_spec st0 s') as [->|Ne].
    + apply calls_rel_nil in H. subst g'. exact (conj Gw (conj Gh S)).
    + destruct (N.eqb_spec s' tty_StateActive) as [->|Na].
      * destruct (redraw_result w h r0 g g' Gw Gh H) as (A & B & C). exact (conj A (conj B (fun _ => C))).
      * apply calls_rel_nil in H. subst g'. split; [assumption|]. split; [assumption|]. discriminate.
  - intros st0 r0 a st1 r1 b st2 r2 P1 P2 g g' S H. apply calls_rel_app in H as (g1 & H1 & H2). eauto.
Qed.

Lemma in_grid_run ops st r : RInv r -> Forall op_wf ops -> Forall (call_in_grid w h) (e_run w h s tab fg bg st r ops).
Proof.
  intros I WF.
  apply (run_ind (fun _ => True) (fun _ _ cs _ _ => Forall (call_in_grid w h) cs));
    try exact I; try exact WF; try exact Logic.I.
  - intros. exact Logic.I.
  - constructor.
  - intros st0 r0 c (_ & _ & X & Y & _) _. unfold e_put. destruct (st0 =? _); [|constructor].
    constructor; [|constructor]. destruct c as [[ch f] b]. cbn [write_call call_in_grid]. lia.
  - intros st0 r0 (_ & _ & X & Y & _). unfold e_lf. destruct (N.ltb_spec (r_y r0) h); [constructor|].
    destruct (st0 =? _); [|constructor]. repeat constructor; cbn [call_in_grid]; lia.
  - intros st0 r0 s' _. destruct (st0 =? s'); [constructor|]. destruct (s' =? tty_StateActive); [|constructor].
    unfold e_redraw. apply Forall_forall. intros c Hc. apply in_flat_map in Hc as (y0 & Hy0 & Hc).
    apply in_map_iff in Hc as (x0 & <- & Hx0). apply in_seqN in Hy0. apply in_seqN in Hx0.
    destruct (r_cell r0 x0 y0) as [[ch f] b]. cbn [write_call call_in_grid]. lia.
  - intros. apply Forall_app. auto.
Qed.

(** an inactive terminal that is not being activated expects no call at all *)
Lemma silent_putc r c : e_putc w h fg bg false r c = [].
Proof.
  unfold e_putc, e_put, e_lf. cbn [app]. destruct (r_x r <? w); [reflexivity|].
  destruct (r_y (r_put r c) <? h); reflexivity.
Qed.

Lemma silent_byte r b : e_byte w h s tab fg bg false r b = [].
Proof.
  unfold e_byte. destruct (b =? 13); [reflexivity|].
  destruct (b =? 10); [unfold e_lf; destruct (r_y r <? h); reflexivity|].
  destruct (b =? 8); [destruct (1 <? r_x r); reflexivity|].
  destruct (b =? 9); [|apply silent_putc].
  generalize (N.to_nat tab). intros n. revert r. induction n as [|n IH]; intros r; cbn [e_iter]; [reflexivity|].
  now rewrite silent_putc, IH.
Qed.

Lemma silent_bytes bs : forall r, e_bytes w h s tab fg bg false r bs = [].
Proof.
  induction bs as [|b t IH]; intros r; cbn [e_bytes]; [reflexivity|]. now rewrite silent_byte, IH.
Qed.

Lemma silent_step st r o :
  st <> tty_StateActive -> (forall s', o = OSetState s' -> s' <> tty_StateActive) ->
  e_step w h s tab fg bg st r o = [].
Proof.
  intros Hs Ho.
  destruct o as [w0 h0 f0 b0|bs|b|x y|s']; cbn [e_step]; try reflexivity.
  - destruct (N.eqb_spec st tty_StateActive); [contradiction|]. apply silent_bytes.
  - destruct (N.eqb_spec st tty_StateActive); [contradiction|]. apply silent_byte.
  - destruct (st =? s'); [reflexivity|].
    destruct (N.eqb_spec s' tty_StateActive) as [E|E]; [|reflexivity].
    exfalso. now apply (Ho s').
Qed.

Lemma silent_run ops : forall st r,
  st <> tty_StateActive -> (forall s', In (OSetState s') ops -> s' <> tty_StateActive) ->
  e_run w h s tab fg bg st r ops = [] /\ fold_left st_step ops st <> tty_StateActive.
Proof.
  induction ops as [|o t IH]; intros st r Hs Ho; cbn [e_run fold_left]; [auto|].
  rewrite silent_step; [|exact Hs|intros s' ->; apply Ho; now left]. cbn [app].
  apply IH.
  - destruct o; cbn [st_step]; try exact Hs. apply Ho. now left.
  - intros s' Hi. apply Ho. now right.
Qed.

End RefLevel2.

(** ---- the model of vt.go composed with the console ---- *)
Section ModelLevel.
Variables (w h s tab fg bg : N).
Hypothesis Hw : 1 <= w.
Hypothesis Hh : 1 <= h.
Hypothesis Hsz : w * (h + s) * 3 < two32.

Lemma rinv_of_model v r : InvVT w h s tab fg bg v -> R w h s v r -> RInv w h s fg bg r.
Proof.
  intros (G & (DL & DY & DV & DB) & (CX & CO)) ((LR & EV & EY) & EX).
  destruct LR as (L & LW & LC). unfold RInv. rewrite EX, EY, EV.
  split; [exact L|]. split; [exact LW|]. split; [exact CX|]. split; [exact DY|]. split; [exact DV|].
  intros i j Hi1 Hi2 Hj. rewrite LC by assumption. now apply DB.
Qed.

Lemma r_cell_v_cell v r x y : InvVT w h s tab fg bg v -> R w h s v r ->
  1 <= x <= w -> 1 <= y <= h -> r_cell r x y = v_cell v x y.
Proof.
  intros (G & (DL & DY & DV & DB) & (CX & CO)) ((LR & EV & EY) & EX) Hx Hy.
  destruct G as (_ & Gvw & _). destruct LR as (L & LW & LC).
  rewrite r_cell_lcell, EV. rewrite LC by lia. unfold v_cell, off. now rewrite Gvw.
Qed.

Lemma rinv_init : RInv w h s fg bg (r_init w h s fg bg).
Proof. destruct (attach_sim w h s tab fg bg Hw Hh Hsz) as (v0 & _ & I0 & R0 & _). exact (rinv_of_model v0 _ I0 R0). Qed.

(** the hypotheses on [v] are the conclusions of [boot_sim] *)
Lemma shows_run ops v (g0 g : cgrid) : Forall op_wf ops ->
  InvVT w h s tab fg bg v -> R w h s v (ref_run w h s tab fg bg ops) -> st v = fold_left st_step ops tty_newState ->
  rev (trace v) = e_run w h s tab fg bg tty_newState (r_init w h s fg bg) ops ->
  gw g0 = w -> gh g0 = h -> calls_rel g0 (rev (trace v)) g -> st v = tty_StateActive -> shows g v.
Proof.
  intros WF I RR S T Gw Gh H Ha. rewrite T in H.
  destruct (sync_run w h s tab fg bg Hw Hh ops tty_newState _ g0 g rinv_init WF) as (Gw' & Gh' & SY); [|exact H|].
  { split; [exact Gw|]. split; [exact Gh|]. discriminate. }
  rewrite <- S in SY. pose proof I as ((_ & Gvw & Gvh & _) & _).
  split; [congruence|]. split; [congruence|]. intros x y Hx Hy. rewrite Gvw in Hx. rewrite Gvh in Hy.
  rewrite SY; [|now apply N.eqb_eq|exact Hx|exact Hy]. now apply r_cell_v_cell.
Qed.

End ModelLevel.

(** ---- the C18 statements ---- *)
Theorem activate_redraws_thm :
  forall w h sb tab fg bg ops,
    1 <= w -> 1 <= h -> tab <= 255 -> w * (h + sb) * 3 < two32 -> Forall op_wf ops ->
    exists v0 v, attach (new_vt tab sb) w h fg bg = Ok v0 /\ run_ops v0 ops = Ok v /\
      (st v <> tty_StateActive ->
       exists v' calls, set_state v tty_StateActive = Ok v' /\ st v' = tty_StateActive /\
         trace v' = rev calls ++ trace v /\
         forall g g' : cgrid, gw g = w -> gh g = h -> calls_rel g calls g' -> shows g' v').
Proof.
  intros w h sb tab fg bg ops Hw Hh Ht Hsz WF.
  destruct (boot_sim w h sb tab fg bg Hw Hh Hsz ops WF) as (v0 & v & E0 & E & I & RR & _).
  exists v0, v. split; [exact E0|]. split; [exact E|]. intros Hs.
  destruct (set_state_sim w h sb tab fg bg Hw Hh Hsz v _ tty_StateActive I RR) as (v' & E' & I' & R' & S' & T').
  destruct (N.eqb_spec (st v) tty_StateActive) as [|_]; [contradiction|].
  rewrite N.eqb_refl in T'.
  exists v', (e_redraw w h (ref_run w h sb tab fg bg ops)).
  split; [exact E'|]. split; [exact S'|]. split; [exact T'|].
  intros g g' Gw Gh H. destruct (redraw_result w h _ g g' Gw Gh H) as (A & B & C).
  pose proof I' as ((_ & Gvw & Gvh & _) & _).
  split; [congruence|]. split; [congruence|]. intros x y Hx Hy. rewrite Gvw in Hx. rewrite Gvh in Hy.
  rewrite C by assumption. now apply (r_cell_v_cell w h sb tab fg bg).
Qed.

(** the executable composition used by the correspondence driver is one instance of [calls_rel] *)
Lemma apply_calls_rel cs : forall g, calls_rel g cs (apply_calls g cs).
Proof.
  induction cs as [|c t IH]; intros g; cbn [apply_calls]; [constructor|].
  econstructor. apply IH.
Qed.
