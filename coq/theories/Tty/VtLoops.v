(** The byte-by-byte loops of vt.go (the scroll branch of lf, and the fill loop of AttachTo) and the
    one-pass summaries used by the model (Tty/Vt.v [copy_down], [blank_range], [blank_cells]) are
    the same function, including WHEN they panic.  Loops are written with fuel; the theorems
    supply exactly the number of iterations the Go loop makes. *)
From Coq Require Import NArith ZArith List Bool Lia.
From Coq Require Import ZifyBool ZifyN ZifyNat.
From FF Require Import Lib.Word Tty.Vt Tty.VtSpec Tty.ListFacts Tty.VtProofs.
Import ListNotations.
Local Open Scope N_scope.

(** [for offset := o; offset < e; offset++ { data[offset] = data[offset+stride] }] *)
Fixpoint copy_loop (fuel : nat) (d : list N) (o e stride : N) : option (list N) :=
  match fuel with
  | O => Some d
  | S fuel =>
      if o <? e then
        match getN d (o + stride) with
        | None => None                                   (* index out of range: run-time panic *)
        | Some x =>
            match setN d o x with
            | None => None
            | Some d' => copy_loop fuel d' (o + 1) e stride
            end
        end
      else Some d
  end.

(** [for offset := o; offset < lim; offset += 3 { data[offset+0], data[offset+1], data[offset+2] = ' ', fg, bg }] *)
Fixpoint blank_loop (fuel : nat) (d : list N) (o lim fg bg : N) : option (list N) :=
  match fuel with
  | O => Some d
  | S fuel =>
      if o <? lim then
        match setN d o 32 with
        | None => None
        | Some d1 =>
            match setN d1 (o + 1) fg with
            | None => None
            | Some d2 =>
                match setN d2 (o + 2) bg with
                | None => None
                | Some d3 => blank_loop fuel d3 (o + 3) lim fg bg
                end
            end
        end
      else Some d
  end.

Lemma list_ext_nthN (a b : list N) : length a = length b -> (forall i, nthN a i = nthN b i) -> a = b.
Proof.
  intros L H. apply nth_ext with (d := 0) (d' := 0); [exact L|].
  intros n _. specialize (H (N.of_nat n)). unfold nthN in H. now rewrite Nat2N.id in H.
Qed.

(** ---- the copy loop ---- *)
Lemma copy_loop_ok fuel : forall d o e stride,
  o <= e -> e + stride <= N.of_nat (length d) -> (N.to_nat (e - o) <= fuel)%nat ->
  exists d', copy_loop fuel d o e stride = Some d' /\ length d' = length d /\
    forall i, nthN d' i = if (o <=? i) && (i <? e) then nthN d (i + stride) else nthN d i.
Proof.
  induction fuel as [|fuel IH]; intros d o e stride Hoe HL HF; cbn [copy_loop].
  - exists d. split; [reflexivity|]. split; [reflexivity|]. intros i.
    destruct (N.leb_spec o i); destruct (N.ltb_spec i e); cbn [andb]; try reflexivity; lia.
  - destruct (N.ltb_spec o e) as [A|A].
    + rewrite getN_some by lia.
      destruct (setN_spec d o (nthN d (o + stride)) ltac:(lia)) as (d1 & E1 & L1 & P1). rewrite E1.
      destruct (IH d1 (o + 1) e stride ltac:(lia) ltac:(lia) ltac:(lia)) as (d' & E' & L' & P').
      exists d'. split; [exact E'|]. split; [lia|]. intros i. rewrite P', !P1.
      destruct (N.leb_spec (o + 1) i); destruct (N.leb_spec o i); destruct (N.ltb_spec i e); cbn [andb];
        destruct (N.eqb_spec (i + stride) o); destruct (N.eqb_spec i o); try reflexivity; try lia;
        (subst i; reflexivity).
    + exists d. split; [reflexivity|]. split; [reflexivity|]. intros i.
      destruct (N.leb_spec o i); destruct (N.ltb_spec i e); cbn [andb]; try reflexivity; lia.
Qed.

Lemma copy_loop_panics fuel : forall d o e stride,
  o < e -> N.of_nat (length d) < e + stride -> (N.to_nat (e - o) <= fuel)%nat ->
  copy_loop fuel d o e stride = None.
Proof.
  induction fuel as [|fuel IH]; intros d o e stride Hoe HL HF; [lia|]. cbn [copy_loop].
  destruct (N.ltb_spec o e); [|lia].
  destruct (N.lt_ge_cases (o + stride) (N.of_nat (length d))) as [A|A].
  - rewrite getN_some by lia.
    destruct (setN_spec d o (nthN d (o + stride)) ltac:(lia)) as (d1 & E1 & L1 & _). rewrite E1.
    apply IH; lia.
  - now rewrite getN_none by lia.
Qed.

(** the model's one-pass [copy_down] is the Go loop *)
Theorem copy_down_is_loop d s e stride :
  copy_down d s e stride = copy_loop (N.to_nat (e - s)) d s e stride.
Proof.
  destruct (N.le_gt_cases e s) as [A|A].
  - unfold copy_down. destruct (N.leb_spec e s); [|lia].
    replace (N.to_nat (e - s)) with 0%nat by lia. reflexivity.
  - destruct (N.lt_ge_cases (N.of_nat (length d)) (e + stride)) as [B|B].
    + rewrite copy_loop_panics by lia. unfold copy_down. destruct (N.leb_spec e s); [lia|].
      rewrite lenN_length. destruct (N.ltb_spec (N.of_nat (length d)) (e + stride)); [reflexivity|lia].
    + destruct (copy_loop_ok (N.to_nat (e - s)) d s e stride ltac:(lia) B ltac:(lia)) as (d1 & E1 & L1 & P1).
      destruct (copy_down_spec d s e stride ltac:(lia) B) as (d2 & E2 & L2 & P2).
      rewrite E1, E2. f_equal. apply list_ext_nthN; [lia|]. intros i. rewrite P1, P2.
      destruct (N.leb_spec s i); destruct (N.ltb_spec i s); destruct (N.ltb_spec i e); cbn [andb]; try reflexivity; lia.
Qed.

(** ---- the blank loop ---- *)
Lemma blank_loop_ok fuel : forall d o k fg bg,
  o + k * 3 <= N.of_nat (length d) -> (N.to_nat k <= fuel)%nat ->
  forall lim, o + (k - 1) * 3 < lim \/ k = 0 -> lim <= o + k * 3 ->
  exists d', blank_loop fuel d o lim fg bg = Some d' /\ length d' = length d /\
    forall i, nthN d' i = if (o <=? i) && (i <? o + k * 3)
                          then match (i - o) mod 3 with 0 => 32 | 1 => fg | _ => bg end
                          else nthN d i.
Proof.
  induction fuel as [|fuel IH]; intros d o k fg bg HL HF lim Hlo Hhi; cbn [blank_loop].
  - assert (k = 0) by lia. subst k. exists d. split; [reflexivity|]. split; [reflexivity|]. intros i.
    destruct (N.leb_spec o i); destruct (N.ltb_spec i (o + 0 * 3)); cbn [andb]; try reflexivity; lia.
  - destruct (N.ltb_spec o lim) as [A|A].
    + assert (Hk : 1 <= k) by lia.
      destruct (setN_spec d o 32 ltac:(lia)) as (d1 & E1 & L1 & P1). rewrite E1.
      destruct (setN_spec d1 (o + 1) fg ltac:(lia)) as (d2 & E2 & L2 & P2). rewrite E2.
      destruct (setN_spec d2 (o + 2) bg ltac:(lia)) as (d3 & E3 & L3 & P3). rewrite E3.
      destruct (IH d3 (o + 3) (k - 1) fg bg ltac:(lia) ltac:(lia) lim ltac:(lia) ltac:(lia)) as (d' & E' & L' & P').
      exists d'. split; [exact E'|]. split; [lia|]. intros i. rewrite P', P3, P2, P1.
      destruct (N.leb_spec (o + 3) i); destruct (N.ltb_spec i (o + 3 + (k - 1) * 3));
        destruct (N.leb_spec o i); destruct (N.ltb_spec i (o + k * 3)); cbn [andb]; try lia.
      * replace ((i - (o + 3)) mod 3) with ((i - o) mod 3) by lia. reflexivity.
      * destruct (N.eqb_spec i (o + 2)); destruct (N.eqb_spec i (o + 1)); destruct (N.eqb_spec i o); try lia; reflexivity.
      * destruct (N.eqb_spec i (o + 2)) as [->|]; [replace ((o + 2 - o) mod 3) with 2 by lia; reflexivity|].
        destruct (N.eqb_spec i (o + 1)) as [->|]; [replace ((o + 1 - o) mod 3) with 1 by lia; reflexivity|].
        destruct (N.eqb_spec i o) as [->|]; [replace ((o - o) mod 3) with 0 by lia; reflexivity|]. lia.
      * destruct (N.eqb_spec i (o + 2)); destruct (N.eqb_spec i (o + 1)); destruct (N.eqb_spec i o); try lia; reflexivity.
    + assert (k = 0) by lia. subst k. exists d. split; [reflexivity|]. split; [reflexivity|]. intros i.
      destruct (N.leb_spec o i); destruct (N.ltb_spec i (o + 0 * 3)); cbn [andb]; try reflexivity; lia.
Qed.

Lemma blank_loop_panics fuel : forall d o k fg bg,
  N.of_nat (length d) < o + k * 3 -> (N.to_nat k <= fuel)%nat ->
  forall lim, o + (k - 1) * 3 < lim -> 1 <= k ->
  blank_loop fuel d o lim fg bg = None.
Proof.
  induction fuel as [|fuel IH]; intros d o k fg bg HL HF lim Hlo Hk; [lia|]. cbn [blank_loop].
  destruct (N.ltb_spec o lim); [|lia].
  destruct (N.lt_ge_cases o (N.of_nat (length d))) as [A0|A0]; [|now rewrite setN_none by lia].
  destruct (setN_spec d o 32 ltac:(lia)) as (d1 & E1 & L1 & _). rewrite E1.
  destruct (N.lt_ge_cases (o + 1) (N.of_nat (length d))) as [A1|A1]; [|now rewrite setN_none by lia].
  destruct (setN_spec d1 (o + 1) fg ltac:(lia)) as (d2 & E2 & L2 & _). rewrite E2.
  destruct (N.lt_ge_cases (o + 2) (N.of_nat (length d))) as [A2|A2]; [|now rewrite setN_none by lia].
  destruct (setN_spec d2 (o + 2) bg ltac:(lia)) as (d3 & E3 & L3 & _). rewrite E3.
  apply (IH d3 (o + 3) (k - 1)); lia.
Qed.

(** the model's one-pass [blank_range] is the Go loop *)
Theorem blank_range_is_loop d e stride fg bg :
  blank_range d e stride fg bg = blank_loop (N.to_nat ((stride + 2) / 3)) d e (e + stride) fg bg.
Proof.
  set (k := (stride + 2) / 3).
  assert (Hk : stride <= k * 3 /\ (k - 1) * 3 < stride \/ (k = 0 /\ stride = 0)) by (unfold k; lia).
  destruct (N.eqb_spec k 0) as [K0|K0].
  - unfold blank_range. fold k. rewrite K0. reflexivity.
  - destruct (N.lt_ge_cases (N.of_nat (length d)) (e + k * 3)) as [B|B].
    + rewrite (blank_loop_panics _ d e k) by lia. unfold blank_range. fold k. rewrite lenN_length.
      destruct (N.eqb_spec k 0); [lia|]. destruct (N.ltb_spec (N.of_nat (length d)) (e + k * 3)); [reflexivity|lia].
    + destruct (blank_loop_ok (N.to_nat k) d e k fg bg B ltac:(lia) (e + stride) ltac:(lia) ltac:(lia)) as (d1 & E1 & L1 & P1).
      destruct (blank_range_spec d e stride k fg bg eq_refl ltac:(lia) B) as (d2 & E2 & L2 & P2).
      rewrite E1, E2. f_equal. apply list_ext_nthN; [lia|]. intros i. rewrite P1, P2.
      destruct (N.leb_spec e i); destruct (N.ltb_spec i e); destruct (N.ltb_spec i (e + k * 3)); cbn [andb];
        try reflexivity; lia.
Qed.

(** AttachTo's fill loop [for i := 0; i < len; i += 3 {...}] over a fresh [make([]uint8, len)]:
    [blank_cells (len/3)] when [len] is a multiple of 3, a panic otherwise — as modelled in [attach] *)
Theorem attach_fill_is_loop len fg bg :
  blank_loop (N.to_nat ((len + 2) / 3)) (repeat 0 (N.to_nat len)) 0 len fg bg =
  if len mod 3 =? 0 then Some (blank_cells (len / 3) fg bg) else None.
Proof.
  pose proof (blank_range_is_loop (repeat 0 (N.to_nat len)) 0 len fg bg) as H.
  replace (0 + len) with len in H by lia. rewrite <- H. clear H.
  unfold blank_range. rewrite lenN_length, repeat_length.
  destruct (N.eqb_spec (len mod 3) 0) as [M|M].
  - assert (E : (len + 2) / 3 = len / 3) by lia. rewrite E.
    destruct (N.eqb_spec (len / 3) 0) as [Z|Z].
    + assert (len = 0) by lia. subst len. reflexivity.
    + destruct (N.ltb_spec (N.of_nat (N.to_nat len)) (0 + len / 3 * 3)); [lia|].
      rewrite takeN_firstn, dropN_skipn. cbn [N.to_nat firstn app].
      rewrite skipn_all2 by (rewrite repeat_length; lia). now rewrite app_nil_r.
  - destruct (N.eqb_spec ((len + 2) / 3) 0); [lia|].
    destruct (N.ltb_spec (N.of_nat (N.to_nat len)) (0 + (len + 2) / 3 * 3)); [reflexivity|lia].
Qed.
