(** Facts about the bounds-checked list primitives of Tty/Vt.v: each is the standard-library
    function it mimics ([nth_error], [firstn], [skipn], [length]) with [N] indices.  Then what the
    proofs about the terminal's buffer read element by element: a segment of a list replaced
    ([splice_spec]), a run of blank cells, [seqN], [upd], and the lines of a scrolled screen. *)
From Coq Require Import NArith ZArith List Bool Lia.
From Coq Require Import ZifyBool ZifyN ZifyNat.
From FF Require Import Lib.Std Lib.Word Tty.Vt Tty.VtSpec.
Import ListNotations.
Local Open Scope N_scope.

Lemma getN_nth_error l : forall i, getN l i = nth_error l (N.to_nat i).
Proof.
  induction l as [|x r IH]; intros i; cbn [getN].
  - destruct (N.to_nat i); reflexivity.
  - destruct (N.eqb_spec i 0) as [->|Hi]; [reflexivity|].
    rewrite IH. replace (N.to_nat i) with (S (N.to_nat (N.pred i))) by lia. reflexivity.
Qed.

Lemma getN_some l i : (N.to_nat i < length l)%nat -> getN l i = Some (nthN l i).
Proof.
  intros H. rewrite getN_nth_error. unfold nthN. now apply nth_error_nth'.
Qed.

Lemma getN_none l i : (length l <= N.to_nat i)%nat -> getN l i = None.
Proof. intros H. rewrite getN_nth_error. now apply nth_error_None. Qed.

Lemma nthN_cons_0 x r : nthN (x :: r) 0 = x.
Proof. reflexivity. Qed.

Lemma nthN_cons_pos x r j : j <> 0 -> nthN (x :: r) j = nthN r (N.pred j).
Proof.
  intros H. unfold nthN. replace (N.to_nat j) with (S (N.to_nat (N.pred j))) by lia. reflexivity.
Qed.

Lemma setN_spec l : forall i v, (N.to_nat i < length l)%nat ->
  exists l', setN l i v = Some l' /\ length l' = length l /\
             forall j, nthN l' j = if j =? i then v else nthN l j.
Proof.
  induction l as [|x r IH]; intros i v H; cbn [length] in H; [lia|].
  cbn [setN]. destruct (N.eqb_spec i 0) as [->|Hi].
  - eexists; split; [reflexivity|]. split; [reflexivity|]. intros j.
    destruct (N.eqb_spec j 0) as [->|Hj]; [reflexivity|]. now rewrite !nthN_cons_pos.
  - destruct (IH (N.pred i) v) as (r' & E & L & P); [lia|]. rewrite E.
    eexists; split; [reflexivity|]. split; [cbn; now rewrite L|]. intros j.
    destruct (N.eqb_spec j 0) as [->|Hj].
    + destruct (N.eqb_spec 0 i); [lia|reflexivity].
    + rewrite !nthN_cons_pos by assumption. rewrite P.
      destruct (N.eqb_spec (N.pred j) (N.pred i)); destruct (N.eqb_spec j i); try reflexivity; lia.
Qed.

Lemma setN_none l : forall i v, (length l <= N.to_nat i)%nat -> setN l i v = None.
Proof.
  induction l as [|x r IH]; intros i v H; cbn [setN]; [reflexivity|]. cbn [length] in H.
  destruct (N.eqb_spec i 0); [lia|]. rewrite IH by lia. reflexivity.
Qed.

Lemma lenN_length l : lenN l = N.of_nat (length l).
Proof.
  unfold lenN. enough (forall a, fold_left (fun a (_ : N) => N.succ a) l a = a + N.of_nat (length l)) as E
    by (rewrite E; lia).
  induction l as [|x r IH]; intros a; cbn [fold_left length]; [lia|]. rewrite IH. lia.
Qed.

Lemma takeN_firstn l : forall n, takeN n l = firstn (N.to_nat n) l.
Proof.
  induction l as [|x r IH]; intros n; cbn [takeN].
  - now rewrite firstn_nil.
  - destruct (N.eqb_spec n 0) as [->|Hn]; [reflexivity|].
    replace (N.to_nat n) with (S (N.to_nat (N.pred n))) by lia. cbn [firstn]. now rewrite IH.
Qed.

Lemma dropN_skipn l : forall n, dropN n l = skipn (N.to_nat n) l.
Proof.
  induction l as [|x r IH]; intros n; cbn [dropN].
  - now rewrite skipn_nil.
  - destruct (N.eqb_spec n 0) as [->|Hn]; [reflexivity|].
    replace (N.to_nat n) with (S (N.to_nat (N.pred n))) by lia. cbn [skipn]. now rewrite IH.
Qed.

(** ---- pointwise view of firstn / skipn / app ---- *)
Lemma nth_firstn_lt {A} (l : list A) : forall n i d, (i < n)%nat -> nth i (firstn n l) d = nth i l d.
Proof.
  induction l as [|x r IH]; intros n i d H.
  - now rewrite firstn_nil.
  - destruct n; [lia|]. cbn [firstn]. destruct i; [reflexivity|]. cbn [nth]. apply IH. lia.
Qed.

Lemma nth_app3 {A} (a b c : list A) i d :
  nth i (a ++ b ++ c) d =
  if (i <? length a)%nat then nth i a d
  else if (i <? length a + length b)%nat then nth (i - length a) b d
  else nth (i - length a - length b) c d.
Proof.
  destruct (Nat.ltb_spec i (length a)) as [H|H].
  - now apply app_nth1.
  - rewrite app_nth2 by assumption.
    destruct (Nat.ltb_spec i (length a + length b)) as [H2|H2].
    + apply app_nth1. lia.
    + rewrite app_nth2 by lia. reflexivity.
Qed.

(** [m] put in place of the elements [a .. b-1] of [d] *)
Lemma splice_spec (d m : list N) a b :
  b = a + N.of_nat (length m) -> b <= N.of_nat (length d) ->
  length (takeN a d ++ m ++ dropN b d) = length d /\
  forall o, nthN (takeN a d ++ m ++ dropN b d) o =
            if o <? a then nthN d o else if o <? b then nthN m (o - a) else nthN d o.
Proof.
  intros -> Hb. rewrite takeN_firstn, dropN_skipn.
  assert (La : length (firstn (N.to_nat a) d) = N.to_nat a) by (apply firstn_length_le; lia). split.
  - rewrite !app_length, La, skipn_length. lia.
  - intros o. unfold nthN. rewrite nth_app3, La.
    destruct (N.ltb_spec o a); destruct (Nat.ltb_spec (N.to_nat o) (N.to_nat a)); try lia.
    + apply nth_firstn_lt. assumption.
    + destruct (N.ltb_spec o (a + N.of_nat (length m)));
        destruct (Nat.ltb_spec (N.to_nat o) (N.to_nat a + length m)); try lia.
      * f_equal. symmetry. apply N2Nat.inj_sub.
      * rewrite nth_skipn_add. f_equal. lia.
Qed.

Lemma blank_cells_succ n fg bg : blank_cells (N.succ n) fg bg = 32 :: fg :: bg :: blank_cells n fg bg.
Proof. unfold blank_cells. now rewrite N.iter_succ. Qed.

Lemma blank_cells_length n fg bg : length (blank_cells n fg bg) = (3 * N.to_nat n)%nat.
Proof.
  induction n as [|n IH] using N.peano_ind; [reflexivity|].
  rewrite blank_cells_succ. cbn [length]. rewrite IH. lia.
Qed.

Lemma blank_cells_nth n fg bg : forall o, o < 3 * n ->
  nthN (blank_cells n fg bg) o = match o mod 3 with 0 => 32 | 1 => fg | _ => bg end.
Proof.
  induction n as [|n IH] using N.peano_ind; intros o H; [lia|]. rewrite blank_cells_succ.
  destruct (N.ltb_spec o 3) as [A|A].
  - assert (E : o = 0 \/ o = 1 \/ o = 2) by lia. destruct E as [->|[->| ->]]; reflexivity.
  - unfold nthN. replace (N.to_nat o) with (S (S (S (N.to_nat (o - 3))))) by lia. cbn [nth].
    fold (nthN (blank_cells n fg bg) (o - 3)). rewrite IH by lia.
    replace o with (o - 3 + 1 * 3) at 2 by lia. now rewrite N.mod_add.
Qed.

(** three consecutive bytes at a multiple of 3 inside a run of blank cells *)
Lemma blank_cells_cell n fg bg k : k < n ->
  cellN (blank_cells n fg bg) (k * 3) = (32, fg, bg).
Proof.
  intros H. unfold cellN. rewrite !blank_cells_nth by lia.
  rewrite (N.add_comm (k * 3) 1), (N.add_comm (k * 3) 2), N.mod_mul, !N.mod_add by discriminate. reflexivity.
Qed.

(** ---- seqN ---- *)
Lemma seqN_length a n : length (seqN a n) = N.to_nat n.
Proof. unfold seqN. now rewrite map_length, seq_length. Qed.

Lemma nth_map_seqN {A} (f : N -> A) n i d : i < n ->
  nth (N.to_nat i) (map f (seqN 0 n)) d = f i.
Proof.
  intros H. unfold seqN. rewrite map_map.
  rewrite nth_indep with (d' := f (N.of_nat 0)) by (rewrite map_length, seq_length; lia).
  rewrite map_nth with (f := fun k => f (N.of_nat k)). rewrite seq_nth by lia.
  f_equal. lia.
Qed.

Lemma seqN_S a n : seqN a (N.succ n) = a :: seqN (N.succ a) n.
Proof.
  unfold seqN. rewrite N2Nat.inj_succ. cbn [seq map]. rewrite N2Nat.id, N2Nat.inj_succ. reflexivity.
Qed.

Lemma seqN_0 a : seqN a 0 = [].
Proof. reflexivity. Qed.

Lemma nth_repeat_lt {A} (a d : A) : forall m n, (n < m)%nat -> nth n (repeat a m) d = a.
Proof.
  induction m as [|m IH]; intros n H; [lia|]. cbn [repeat]. destruct n; [reflexivity|].
  cbn [nth]. apply IH. lia.
Qed.

(** ---- upd (Tty/VtSpec.v) ---- *)
Lemma upd_length {A} (l : list A) : forall i f, length (upd l i f) = length l.
Proof. induction l as [|a r IH]; intros [|i] f; cbn [upd length]; auto. Qed.

Lemma upd_nth_same {A} (l : list A) : forall i f d, (i < length l)%nat -> nth i (upd l i f) d = f (nth i l d).
Proof.
  induction l as [|a r IH]; intros [|i] f d H; cbn [length] in H; try lia; cbn [upd nth]; auto.
  apply IH. lia.
Qed.

Lemma upd_nth_other {A} (l : list A) : forall i k f d, k <> i -> nth k (upd l i f) d = nth k l d.
Proof.
  induction l as [|a r IH]; intros [|i] [|k] f d H; cbn [upd nth]; auto; try congruence.
Qed.

(** ---- dropping line [v0] of [n] lines and appending a line ---- *)
Lemma scroll_rows {A} (ls : list (list A)) (bl : list A) (n v0 : N) :
  length ls = N.to_nat (n) -> v0 < n ->
  forall i, i < n ->
    nth (N.to_nat i) (firstn (N.to_nat v0) ls ++ skipn (S (N.to_nat v0)) ls ++ [bl]) [] =
    if i <? v0 then nth (N.to_nat i) ls []
    else if i <? n - 1 then nth (N.to_nat (i + 1)) ls [] else bl.
Proof.
  intros L Hv i Hi. rewrite nth_app3. rewrite firstn_length, skipn_length, L.
  destruct (N.ltb_spec i v0) as [A0|A0].
  - destruct (Nat.ltb_spec (N.to_nat i) (Nat.min (N.to_nat v0) (N.to_nat (n)))); [|lia].
    apply nth_firstn_lt. lia.
  - destruct (Nat.ltb_spec (N.to_nat i) (Nat.min (N.to_nat v0) (N.to_nat (n)))); [lia|].
    destruct (N.ltb_spec i (n - 1)) as [B|B].
    + destruct (Nat.ltb_spec (N.to_nat i) (Nat.min (N.to_nat v0) (N.to_nat (n)) + (N.to_nat (n) - S (N.to_nat v0)))); [|lia].
      rewrite nth_skipn_add. f_equal. lia.
    + destruct (Nat.ltb_spec (N.to_nat i) (Nat.min (N.to_nat v0) (N.to_nat (n)) + (N.to_nat (n) - S (N.to_nat v0)))); [lia|].
      replace (N.to_nat i - Nat.min (N.to_nat v0) (N.to_nat (n)) - (N.to_nat (n) - S (N.to_nat v0)))%nat with 0%nat by lia.
      reflexivity.
Qed.

Lemma scroll_length {A} (ls : list (list A)) (bl : list A) (n v0 : N) :
  length ls = N.to_nat (n) -> v0 < n ->
  length (firstn (N.to_nat v0) ls ++ skipn (S (N.to_nat v0)) ls ++ [bl]) = N.to_nat (n).
Proof.
  intros L Hv. rewrite !app_length, firstn_length, skipn_length, L. cbn [length]. lia.
Qed.

Lemma in_seqN x a n : In x (seqN a n) -> a <= x < a + n.
Proof.
  unfold seqN. rewrite in_map_iff. intros (k & <- & Hk). apply in_seq in Hk. lia.
Qed.

Lemma seqN_cons a n : 1 <= n -> seqN a n = a :: seqN (a + 1) (n - 1).
Proof.
  intros H. replace n with (N.succ (n - 1)) at 1 by lia. rewrite seqN_S. f_equal. f_equal. lia.
Qed.

