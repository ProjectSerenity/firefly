(** Simulation between the model of vt.go (Tty/Vt.v) and the reference terminal (Tty/VtSpec.v),
    with the console calls the model emits (Tty/VtConsSpec.v).  Used by Props/C17.v and C18.v. *)
From Coq Require Import NArith ZArith List Bool Lia.
From Coq Require Import ZifyBool ZifyN ZifyNat.
From FF Require Import Lib.Std Lib.Word Gen.Consts_device_tty Tty.Vt Tty.VtSpec Tty.VtConsSpec Tty.ListFacts.
Import ListNotations.
Local Open Scope N_scope.

Lemma sub32_1 a : 1 <= a -> a < two32 -> sub32 a 1 = a - 1.
Proof. unfold sub32, w32, two32. intros. lia. Qed.


(** ---- the two loops of lf on plain lists ---- *)
Lemma copy_down_spec d S0 E T :
  S0 <= E -> E + T <= N.of_nat (length d) ->
  exists d1, copy_down d S0 E T = Some d1 /\ length d1 = length d /\
    forall o, nthN d1 o = if o <? S0 then nthN d o else if o <? E then nthN d (o + T) else nthN d o.
Proof.
  intros HSE HL. unfold copy_down. destruct (N.leb_spec E S0) as [A|A].
  - exists d. split; [reflexivity|]. split; [reflexivity|]. intros o.
    destruct (N.ltb_spec o S0); [reflexivity|]. destruct (N.ltb_spec o E); [lia|reflexivity].
  - rewrite lenN_length. destruct (N.ltb_spec (N.of_nat (length d)) (E + T)) as [B|B]; [lia|].
    eexists; split; [reflexivity|].
    assert (Lm : length (takeN (E - S0) (dropN (S0 + T) d)) = N.to_nat (E - S0))
      by (rewrite takeN_firstn, dropN_skipn, firstn_length, skipn_length; lia).
    destruct (splice_spec d (takeN (E - S0) (dropN (S0 + T) d)) S0 E) as (L1 & P1); [lia|lia|].
    split; [exact L1|]. intros o. rewrite P1.
    destruct (N.ltb_spec o S0); [reflexivity|]. destruct (N.ltb_spec o E); [|reflexivity].
    unfold nthN. rewrite takeN_firstn, dropN_skipn, nth_firstn_lt, nth_skipn_add by lia. f_equal. lia.
Qed.

(** [k] is the number of cells the loop blanks: [ceil(T/3)] *)
Lemma blank_range_spec d1 E T k fg bg :
  k = (T + 2) / 3 -> 1 <= k -> E + k * 3 <= N.of_nat (length d1) ->
  exists d2, blank_range d1 E T fg bg = Some d2 /\ length d2 = length d1 /\
    forall o, nthN d2 o = if o <? E then nthN d1 o
                          else if o <? E + k * 3
                               then match (o - E) mod 3 with 0 => 32 | 1 => fg | _ => bg end
                               else nthN d1 o.
Proof.
  intros Ek Hk HL. unfold blank_range. rewrite <- Ek.
  destruct (N.eqb_spec k 0); [lia|]. rewrite lenN_length.
  destruct (N.ltb_spec (N.of_nat (length d1)) (E + k * 3)); [lia|].
  eexists; split; [reflexivity|].
  destruct (splice_spec d1 (blank_cells k fg bg) E (E + k * 3)) as (L1 & P1);
    [rewrite blank_cells_length; lia|lia|].
  split; [exact L1|]. intros o. rewrite P1.
  destruct (N.ltb_spec o E); [reflexivity|]. destruct (N.ltb_spec o (E + k * 3)); [|reflexivity].
  apply blank_cells_nth. lia.
Qed.

Section Geometry.
Variables (w h s tab fg bg : N).
Hypothesis Hw : 1 <= w.
Hypothesis Hh : 1 <= h.
Hypothesis Hsz : w * (h + s) * 3 < two32.

Definition size : N := w * (h + s) * 3.
Definition off (i j : N) : N := (i * w + j) * 3.
Definition rowoff (i : N) : N := i * (w * 3).

Lemma w3_small : w * 3 < two32.
Proof. nia. Qed.
Lemma hs3_small : (h + s) * 3 < two32.
Proof. nia. Qed.
Lemma hs_small : h + s < two32.
Proof. pose proof hs3_small. lia. Qed.
Lemma w_small : w < two32.
Proof. pose proof w3_small. lia. Qed.

Lemma off_rowoff i j : off i j = rowoff i + j * 3.
Proof. unfold off, rowoff. lia. Qed.

Lemma rowoff_mono a b : a <= b -> rowoff a <= rowoff b.
Proof. unfold rowoff. intros. nia. Qed.

Lemma rowoff_S a : rowoff (a + 1) = rowoff a + w * 3.
Proof. unfold rowoff. lia. Qed.

Lemma rowoff_total : rowoff (h + s) = size.
Proof. unfold rowoff, size. lia. Qed.

Lemma off_row_lt i j r : j < w -> i < r -> off i j + 3 <= rowoff r.
Proof.
  intros Hj Hi. rewrite off_rowoff. pose proof (rowoff_mono (i + 1) r ltac:(lia)) as M.
  rewrite rowoff_S in M. lia.
Qed.

Lemma off_row_ge i j r : r <= i -> rowoff r <= off i j.
Proof. intros Hi. rewrite off_rowoff. pose proof (rowoff_mono r i Hi). lia. Qed.

Lemma off_lt i j : i < h + s -> j < w -> off i j + 3 <= size.
Proof. intros. rewrite <- rowoff_total. now apply off_row_lt. Qed.

Lemma off_inj i j i' j' : j < w -> j' < w -> off i j = off i' j' -> i = i' /\ j = j'.
Proof.
  intros Hj Hj' E.
  destruct (N.lt_trichotomy i i') as [L|[->|L]].
  - pose proof (off_row_lt i j i' Hj L). pose proof (off_row_ge i' j' i' ltac:(lia)). lia.
  - split; [reflexivity|]. unfold off in E. lia.
  - pose proof (off_row_lt i' j' i Hj' L). pose proof (off_row_ge i j i ltac:(lia)). lia.
Qed.

Lemma off_S i j : off i (j + 1) = off i j + 3.
Proof. unfold off. lia. Qed.

Lemma off_next_row i j : off (i + 1) j = off i j + w * 3.
Proof. unfold off. lia. Qed.

(** the uint32 expression of updateDataOffset never wraps inside the buffer *)
Lemma udo_val vy0 cy0 cx0 : 1 <= cx0 <= w -> 1 <= cy0 <= h -> vy0 + h <= h + s ->
  w32 (w32 (w32 (vy0 + sub32 cy0 1) * w32 (w * 3)) + w32 (sub32 cx0 1 * 3)) = off (vy0 + cy0 - 1) (cx0 - 1).
Proof.
  intros Hx Hy Hv. pose proof w3_small. pose proof hs_small. pose proof w_small.
  rewrite !sub32_1 by lia.
  pose proof (off_lt (vy0 + cy0 - 1) (cx0 - 1) ltac:(lia) ltac:(lia)) as B.
  rewrite off_rowoff in B. unfold rowoff in B. unfold size in B.
  rewrite (w32_small (vy0 + (cy0 - 1))) by lia.
  rewrite (w32_small (w * 3)) by lia.
  rewrite (w32_small ((cx0 - 1) * 3)) by lia.
  replace (vy0 + (cy0 - 1)) with (vy0 + cy0 - 1) by lia.
  rewrite (w32_small ((vy0 + cy0 - 1) * (w * 3))) by lia.
  rewrite w32_small by lia.
  rewrite off_rowoff. reflexivity.
Qed.

(** ---- invariant (DESIGN.md A.4) ---- *)
Definition Geo (v : vt) : Prop :=
  attached v = true /\ vw v = w /\ vh v = h /\ tw v = w /\ th v = h + s /\ tabw v = tab /\
  dfg v = fg /\ dbg v = bg /\ cfg v = fg /\ cbg v = bg.

Definition Dyn (v : vt) : Prop :=
  length (data v) = N.to_nat size /\ 1 <= cy v <= h /\ vy v + h <= h + s /\
  (forall i j, vy v + h <= i -> i < h + s -> j < w -> cellN (data v) (off i j) = (32, fg, bg)).

Definition Cur (v : vt) : Prop :=
  1 <= cx v <= w /\ doff v = off (vy v + cy v - 1) (cx v - 1).

Definition InvVT (v : vt) : Prop := Geo v /\ Dyn v /\ Cur v.

Lemma inv_in_bounds v : InvVT v ->
  1 <= cx v <= w /\ 1 <= cy v <= h /\ vy v + h <= h + s /\
  length (data v) = N.to_nat (w * (h + s) * 3) /\ doff v + 2 < N.of_nat (length (data v)).
Proof.
  intros (G & (DL & DY & DV & DB) & (CX & CO)).
  split; [exact CX|]. split; [exact DY|]. split; [exact DV|]. split; [exact DL|]. rewrite CO, DL.
  pose proof (off_lt (vy v + cy v - 1) (cx v - 1) ltac:(lia) ltac:(lia)). unfold size in *. lia.
Qed.

(** ---- relation with a reference terminal ---- *)
Definition lcell (ls : list (list cell)) (i j : N) : cell :=
  nth (N.to_nat j) (nth (N.to_nat i) ls []) (0, 0, 0).

Definition LinesRel (d : list N) (ls : list (list cell)) : Prop :=
  length ls = N.to_nat (h + s) /\
  (forall i, i < h + s -> length (nth (N.to_nat i) ls []) = N.to_nat w) /\
  (forall i j, i < h + s -> j < w -> lcell ls i j = cellN d (off i j)).

Definition Rl (v : vt) (r : rterm) : Prop :=
  LinesRel (data v) (r_lines r) /\ r_view r = vy v /\ r_y r = cy v.

Definition R (v : vt) (r : rterm) : Prop := Rl v r /\ r_x r = cx v.



(** ---- data-level facts about the model's stores ---- *)
Lemma three_stores (v : vt) b (K : vt -> outcome vt) :
  doff v + 3 <= N.of_nat (length (data v)) -> doff v + 3 <= two32 ->
  exists d', length d' = length (data v) /\
    (forall j, nthN d' j = if j =? doff v then b else if j =? doff v + 1 then cfg v
                           else if j =? doff v + 2 then cbg v else nthN (data v) j) /\
    bind (store v (doff v) b) (fun v =>
    bind (store v (w64 (doff v + 1)) (cfg v)) (fun v =>
    bind (store v (w64 (doff v + 2)) (cbg v)) K)) = K (set_data v d').
Proof.
  intros HL H32.
  assert (W1 : w64 (doff v + 1) = doff v + 1) by (apply w64_small; unfold two64, two32 in *; lia).
  assert (W2 : w64 (doff v + 2) = doff v + 2) by (apply w64_small; unfold two64, two32 in *; lia).
  destruct (setN_spec (data v) (doff v) b ltac:(lia)) as (d1 & E1 & L1 & P1).
  destruct (setN_spec d1 (doff v + 1) (cfg v) ltac:(lia)) as (d2 & E2 & L2 & P2).
  destruct (setN_spec d2 (doff v + 2) (cbg v) ltac:(lia)) as (d3 & E3 & L3 & P3).
  exists d3. split; [lia|]. split.
  - intros j. rewrite P3, P2, P1.
    destruct (N.eqb_spec j (doff v)); destruct (N.eqb_spec j (doff v + 1)); destruct (N.eqb_spec j (doff v + 2)); try reflexivity; lia.
  - unfold store at 1. rewrite E1. cbn [bind].
    unfold store at 1. cbn [doff set_data data cfg]. rewrite W1, E2. cbn [bind].
    unfold store at 1. cbn [doff set_data data cbg]. rewrite W2, E3. cbn [bind]. reflexivity.
Qed.

Lemma cellN_stores d d' o b f g :
  (forall j, nthN d' j = if j =? o then b else if j =? o + 1 then f else if j =? o + 2 then g else nthN d j) ->
  cellN d' o = (b, f, g) /\ forall o', o' + 3 <= o \/ o + 3 <= o' -> cellN d' o' = cellN d o'.
Proof.
  intros P. split; [|intros o' H]; unfold cellN; rewrite !P.
  - rewrite !N.eqb_refl, (proj2 (N.eqb_neq (o + 1) o)), (proj2 (N.eqb_neq (o + 2) o)),
      (proj2 (N.eqb_neq (o + 2) (o + 1))) by lia. reflexivity.
  - rewrite !(proj2 (N.eqb_neq _ _)) by lia. reflexivity.
Qed.

Lemma cellN_same d d' o o' : (forall k, k < 3 -> nthN d' (o + k) = nthN d (o' + k)) -> cellN d' o = cellN d o'.
Proof.
  intros H. unfold cellN. generalize (H 0 eq_refl) (H 1 eq_refl) (H 2 eq_refl). rewrite !N.add_0_r. now intros -> -> ->.
Qed.

Lemma cell_after_stores d d' i0 j0 b f g : j0 < w ->
  (forall j, nthN d' j = if j =? off i0 j0 then b else if j =? off i0 j0 + 1 then f
                         else if j =? off i0 j0 + 2 then g else nthN d j) ->
  forall i j, j < w -> cellN d' (off i j) = if (i =? i0) && (j =? j0) then (b, f, g) else cellN d (off i j).
Proof.
  intros Hj0 P i j Hj. destruct (cellN_stores d d' _ b f g P) as (Same & Other).
  destruct (N.eqb_spec i i0) as [->|Ni]; [destruct (N.eqb_spec j j0) as [->|Nj]|]; cbn [andb]; [exact Same|..];
    apply Other.
  - unfold off. lia.
  - assert (off i j <> off i0 j0) by (intros E; apply off_inj in E; [lia|assumption|assumption]). unfold off in *. lia.
Qed.

Lemma scroll_cells d v0 :
  length d = N.to_nat size -> v0 + h = h + s ->
  exists d2,
    match copy_down d (rowoff v0) (rowoff (v0 + h - 1)) (w * 3) with
    | Some d1 => blank_range d1 (rowoff (v0 + h - 1)) (w * 3) fg bg
    | None => None
    end = Some d2 /\ length d2 = N.to_nat size /\
    forall i j, i < h + s -> j < w ->
      cellN d2 (off i j) = if i <? v0 then cellN d (off i j)
                           else if i <? h + s - 1 then cellN d (off (i + 1) j) else (32, fg, bg).
Proof.
  intros HL Hv.
  assert (HE : rowoff (v0 + h - 1) + w * 3 = size).
  { rewrite <- rowoff_S, <- rowoff_total. f_equal. lia. }
  assert (HSE : rowoff v0 <= rowoff (v0 + h - 1)) by (apply rowoff_mono; lia).
  destruct (copy_down_spec d (rowoff v0) (rowoff (v0 + h - 1)) (w * 3) HSE ltac:(lia)) as (d1 & E1 & L1 & P1).
  rewrite E1.
  destruct (blank_range_spec d1 (rowoff (v0 + h - 1)) (w * 3) w fg bg ltac:(lia) Hw ltac:(lia)) as (d2 & E2 & L2 & P2).
  exists d2. split; [exact E2|]. split; [lia|].
  (* every comparison of the two pointwise descriptions is decided by where the cell's row lies *)
  intros i j Hi Hj. destruct (N.ltb_spec i v0) as [A|A].
  - pose proof (off_row_lt i j v0 Hj A). apply cellN_same. intros k Hk.
    rewrite P2, P1, !(proj2 (N.ltb_lt _ _)) by lia. reflexivity.
  - pose proof (off_row_ge i j v0 A).
    destruct (N.ltb_spec i (h + s - 1)) as [B|B].
    + pose proof (off_row_lt i j (v0 + h - 1) Hj ltac:(lia)). rewrite off_next_row. apply cellN_same. intros k Hk.
      rewrite P2, (proj2 (N.ltb_lt _ _)) by lia.
      rewrite P1, (proj2 (N.ltb_ge _ _)), (proj2 (N.ltb_lt _ _)) by lia. f_equal. lia.
    + assert (i = v0 + h - 1) by lia. subst i. unfold cellN. rewrite !P2. rewrite off_rowoff.
      rewrite !(proj2 (N.ltb_ge _ (rowoff (v0 + h - 1)))), !(proj2 (N.ltb_lt _ _)) by lia.
      replace ((rowoff (v0 + h - 1) + j * 3 - rowoff (v0 + h - 1)) mod 3) with 0 by lia.
      replace ((rowoff (v0 + h - 1) + j * 3 + 1 - rowoff (v0 + h - 1)) mod 3) with 1 by lia.
      replace ((rowoff (v0 + h - 1) + j * 3 + 2 - rowoff (v0 + h - 1)) mod 3) with 2 by lia.
      reflexivity.
Qed.

(** ---- list-of-lines facts (reference side) ---- *)
Lemma linesrel_put d d' ls i0 j0 c :
  LinesRel d ls -> i0 < h + s -> j0 < w ->
  (forall i j, i < h + s -> j < w ->
     cellN d' (off i j) = if (i =? i0) && (j =? j0) then c else cellN d (off i j)) ->
  LinesRel d' (upd ls (N.to_nat i0) (fun ln => upd ln (N.to_nat j0) (fun _ => c))).
Proof.
  intros (L & LW & LC) Hi0 Hj0 Hd. split; [|split].
  - now rewrite upd_length.
  - intros i Hi. destruct (N.eq_dec i i0) as [->|Ne].
    + rewrite upd_nth_same by lia. rewrite upd_length. now apply LW.
    + rewrite upd_nth_other by lia. now apply LW.
  - intros i j Hi Hj. rewrite Hd by assumption. unfold lcell.
    destruct (N.eqb_spec i i0) as [->|Ne]; cbn [andb].
    + rewrite upd_nth_same by lia.
      destruct (N.eqb_spec j j0) as [->|Nj].
      * rewrite upd_nth_same; [reflexivity|]. rewrite LW by assumption. lia.
      * rewrite upd_nth_other by lia. now apply LC.
    + rewrite upd_nth_other by lia. now apply LC.
Qed.

Lemma linesrel_scroll d d' ls v0 :
  LinesRel d ls -> v0 + h = h + s ->
  (forall i j, i < h + s -> j < w ->
     cellN d' (off i j) = if i <? v0 then cellN d (off i j)
                          else if i <? h + s - 1 then cellN d (off (i + 1) j) else (32, fg, bg)) ->
  LinesRel d' (firstn (N.to_nat v0) ls ++ skipn (S (N.to_nat v0)) ls ++ [blank_line w fg bg]).
Proof.
  intros (L & LW & LC) Hv Hd.
  pose proof (scroll_rows ls (blank_line w fg bg) (h + s) v0 L ltac:(lia)) as Hrow.
  split; [|split].
  - apply scroll_length; [assumption|lia].
  - intros i Hi. rewrite Hrow by assumption.
    destruct (N.ltb_spec i v0); [now apply LW|].
    destruct (N.ltb_spec i (h + s - 1)); [apply LW; lia|].
    unfold blank_line. now rewrite repeat_length.
  - intros i j Hi Hj. rewrite Hd by assumption. unfold lcell. rewrite Hrow by assumption.
    destruct (N.ltb_spec i v0); [now apply LC|].
    destruct (N.ltb_spec i (h + s - 1)); [apply (LC (i + 1) j); lia|].
    unfold blank_line. rewrite nth_repeat_lt by lia. reflexivity.
Qed.

Lemma lines_ext (l1 l2 : list (list cell)) :
  length l1 = N.to_nat (h + s) -> length l2 = N.to_nat (h + s) ->
  (forall i, i < h + s -> length (nth (N.to_nat i) l1 []) = N.to_nat w) ->
  (forall i, i < h + s -> length (nth (N.to_nat i) l2 []) = N.to_nat w) ->
  (forall i j, i < h + s -> j < w -> lcell l1 i j = lcell l2 i j) -> l1 = l2.
Proof.
  intros L1 L2 W1 W2 E.
  apply nth_ext with (d := []) (d' := []); [lia|].
  intros n Hn. specialize (W1 (N.of_nat n) ltac:(lia)). specialize (W2 (N.of_nat n) ltac:(lia)).
  rewrite Nat2N.id in W1, W2.
  apply nth_ext with (d := (0, 0, 0)) (d' := (0, 0, 0)); [lia|].
  intros m Hm. specialize (E (N.of_nat n) (N.of_nat m) ltac:(lia) ltac:(lia)).
  unfold lcell in E. now rewrite !Nat2N.id in E.
Qed.

Lemma linesrel_unique d l1 l2 : LinesRel d l1 -> LinesRel d l2 -> l1 = l2.
Proof.
  intros (L1 & W1 & C1) (L2 & W2 & C2). apply lines_ext; auto.
  intros i j Hi Hj. now rewrite C1, C2.
Qed.

Lemma linesrel_abs v : vw v = w -> th v = h + s -> LinesRel (data v) (abs_lines v).
Proof.
  intros Ew Et. unfold abs_lines. rewrite Ew, Et. split; [|split].
  - now rewrite map_length, seqN_length.
  - intros i Hi. rewrite nth_map_seqN by assumption. now rewrite map_length, seqN_length.
  - intros i j Hi Hj. unfold lcell. rewrite nth_map_seqN by assumption.
    rewrite nth_map_seqN by assumption. reflexivity.
Qed.

Lemma linesrel_init : LinesRel (blank_cells (w * (h + s)) fg bg) (repeat (blank_line w fg bg) (N.to_nat (h + s))).
Proof.
  split; [|split].
  - now rewrite repeat_length.
  - intros i Hi. rewrite nth_repeat_lt by lia. unfold blank_line. now rewrite repeat_length.
  - intros i j Hi Hj. unfold lcell. rewrite nth_repeat_lt by lia. unfold blank_line.
    rewrite nth_repeat_lt by lia. unfold off. rewrite blank_cells_cell; [reflexivity|]. nia.
Qed.


(** ---- simulation of the primitives ---- *)
Ltac vsimpl :=
  cbn [update_data_offset set_doff set_cx set_cy set_vy set_data set_trace set_st emit
       data cx cy vy doff st trace attached vw vh tw th sb tabw dfg dbg cfg cbg active].
Ltac vsimpl_in H :=
  cbn [update_data_offset set_doff set_cx set_cy set_vy set_data set_trace set_st emit
       data cx cy vy doff st trace attached vw vh tw th sb tabw dfg dbg cfg cbg active] in H.

Lemma active_emit v c : active (emit v c) = active v.
Proof. reflexivity. Qed.

Lemma R_mk v ls : LinesRel (data v) ls -> R v (mkR ls (vy v) (cx v) (cy v)).
Proof. intros LR. exact (conj (conj LR (conj eq_refl eq_refl)) eq_refl). Qed.

Lemma udo_sim v r : Geo v -> Dyn v -> 1 <= cx v <= w -> R v r ->
  Geo (update_data_offset v) /\ Dyn (update_data_offset v) /\ Cur (update_data_offset v) /\
  R (update_data_offset v) r.
Proof.
  intros G D CX RR. split; [exact G|]. split; [exact D|]. split; [|exact RR].
  destruct G as (_ & Gvw & _), D as (_ & DY & DV & _).
  unfold Cur. vsimpl. split; [exact CX|]. rewrite Gvw. now apply udo_val.
Qed.

(** the end of a line feed on the last viewport line, from the state [v1] whose buffer or viewport has moved:
    the console calls of an active terminal, then updateDataOffset *)
Lemma lf_tail v1 ls : Geo v1 -> Dyn v1 -> cx v1 = 1 -> LinesRel (data v1) ls ->
  let v' := update_data_offset
              (if active v1 then emit (emit v1 (CScroll console_ScrollDirUp 1))
                                      (CFill 1 (cy v1) (tw v1) 1 (dfg v1) (dbg v1)) else v1) in
  Geo v' /\ Dyn v' /\ Cur v' /\ R v' (mkR ls (vy v1) 1 (cy v1)) /\ st v' = st v1 /\
  trace v' = (if active v1 then [CFill 1 (cy v1) w 1 fg bg; CScroll console_ScrollDirUp 1] else []) ++ trace v1.
Proof.
  intros G D X LR. pose proof G as (_ & _ & _ & Gtw & _ & _ & Gdfg & Gdbg & _). rewrite Gtw, Gdfg, Gdbg.
  destruct (udo_sim v1 _ G D ltac:(lia) (R_mk v1 ls LR)) as (G' & D' & C' & R'). rewrite X in R'.
  destruct (active v1); cbv zeta; repeat split; try apply G'; try apply D'; try apply C'; apply R'.
Qed.

Lemma lf_sim v r : Geo v -> Dyn v -> Rl v r ->
  exists v', lf v true = Ok v' /\ Geo v' /\ Dyn v' /\ Cur v' /\
             R v' (r_lf w h s fg bg r) /\ st v' = st v /\
             trace v' = rev (e_lf w h fg bg (active v) r) ++ trace v.
Proof.
  intros G D (LR & EV & EY). pose proof D as (DL & DY & DV & DB).
  pose proof G as (Ga & Gvw & Gvh & Gtw & Gth & Gtab & Gdfg & Gdbg & Gcfg & Gcbg).
  pose proof hs3_small. pose proof w3_small.
  unfold lf. vsimpl. rewrite Gvh.
  unfold r_lf, e_lf. rewrite EY, EV.
  rewrite (w32_small (cy v + 1)) by lia.
  destruct (N.ltb_spec (cy v) h) as [A|A].
  - (* the cursor moves to the next viewport line *)
    destruct (N.leb_spec (cy v + 1) h); [|lia]. cbn [bind].
    set (v1 := set_cy (set_cx v 1) (cy v + 1)).
    assert (D1 : Dyn v1) by (split; [exact DL|]; split; [unfold v1; vsimpl; lia|]; split; [exact DV|exact DB]).
    destruct (udo_sim v1 _ G D1 ltac:(unfold v1; vsimpl; lia) (R_mk v1 _ LR)) as (G' & D' & C' & R').
    eexists. split; [reflexivity|]. repeat split; try apply G'; try apply D'; try apply C'; apply R'.
  - destruct (N.leb_spec (cy v + 1) h); [lia|].
    rewrite Gth. rewrite (w32_small (vy v + h)) by lia.
    destruct (N.ltb_spec (vy v + h) (h + s)) as [B|B].
    + (* the viewport moves down through the scrollback *)
      rewrite (w32_small (vy v + 1)) by lia. cbn [bind].
      set (v1 := set_vy (set_cx v 1) (vy v + 1)).
      assert (D1 : Dyn v1).
      { split; [exact DL|]. split; [exact DY|]. split; [unfold v1; vsimpl; lia|].
        intros i j Hi1 Hi2 Hj. unfold v1 in Hi1. vsimpl_in Hi1. apply DB; lia. }
      destruct (lf_tail v1 (r_lines r) G D1 eq_refl LR) as (G' & D' & C' & R' & S' & T').
      eexists. split; [reflexivity|]. split; [exact G'|]. split; [exact D'|]. split; [exact C'|].
      split; [exact R'|]. split; [exact S'|]. rewrite T'. change (active v1) with (active v).
      destruct (active v); reflexivity.
    + (* the viewport's lines scroll up inside the buffer *)
      assert (Evy : vy v + h = h + s) by lia.
      unfold scroll_buffer. vsimpl. rewrite Gvw, Gvh, Gdfg, Gdbg.
      rewrite (w32_small (w * 3)) by lia. rewrite (w32_small (vy v + h)) by lia.
      rewrite sub32_1 by lia.
      destruct (scroll_cells (data v) (vy v) DL Evy) as (d2 & E2 & L2 & P2).
      unfold rowoff in E2.
      destruct (copy_down (data v) (vy v * (w * 3)) ((vy v + h - 1) * (w * 3)) (w * 3)) as [d1|]; [|discriminate].
      rewrite E2. cbn [bind].
      set (v1 := set_data (set_cx v 1) d2).
      assert (D1 : Dyn v1).
      { split; [exact L2|]. split; [exact DY|]. split; [exact DV|].
        intros i j Hi1 Hi2 Hj. unfold v1 in Hi1. vsimpl_in Hi1. lia. }
      destruct (lf_tail v1 _ G D1 eq_refl (linesrel_scroll (data v) d2 (r_lines r) (vy v) LR Evy P2))
        as (G' & D' & C' & R' & S' & T').
      eexists. split; [reflexivity|]. split; [exact G'|]. split; [exact D'|]. split; [exact C'|].
      split; [exact R'|]. split; [exact S'|]. rewrite T'. change (active v1) with (active v).
      destruct (active v); reflexivity.
Qed.


Lemma do_write_sim v r b adv : Geo v -> Dyn v -> Cur v -> R v r ->
  exists v', do_write v b adv = Ok v' /\ Geo v' /\ Dyn v' /\ Cur v' /\
    R v' (if adv then r_putc w h s fg bg r (b, fg, bg) else r_put r (b, fg, bg)) /\ st v' = st v /\
    trace v' = rev (if adv then e_putc w h fg bg (active v) r (b, fg, bg)
                    else e_put (active v) r (b, fg, bg)) ++ trace v.
Proof.
  intros G D C ((LR & EV & EY) & EX).
  pose proof D as (DL & DY & DV & DB). pose proof C as (CX & CO).
  pose proof G as (Ga & Gvw & Gvh & Gtw & Gth & Gtab & Gdfg & Gdbg & Gcfg & Gcbg).
  pose proof hs3_small. pose proof w3_small. pose proof w_small.
  set (row := vy v + cy v - 1) in *. set (col := cx v - 1) in *.
  assert (Hrow : row < h + s) by (unfold row; lia).
  assert (Hcol : col < w) by (unfold col; lia).
  pose proof (off_lt row col Hrow Hcol) as Hoff. unfold size in Hoff.
  set (t0 := rev (e_put (active v) r (b, fg, bg)) ++ trace v).
  assert (E0 : (if active v then emit v (CWrite b (cfg v) (cbg v) (cx v) (cy v)) else v) = set_trace v t0).
  { unfold t0, e_put. rewrite EX, EY, Gcfg, Gcbg. destruct (active v), v; reflexivity. }
  set (K := fun v3 : vt =>
              if adv then
                let v4 := set_cx (set_doff v3 (w64 (doff v3 + 3))) (w32 (cx v3 + 1)) in
                if vw v4 <? cx v4 then lf v4 true else Ok v4
              else Ok v3).
  destruct (three_stores (set_trace v t0) b K) as (d' & L' & P' & EQ); vsimpl.
  { rewrite CO, DL. fold row col. unfold size. lia. }
  { rewrite CO. fold row col. unfold two32 in *. lia. }
  assert (EQ' : do_write v b adv = K (set_data (set_trace v t0) d')) by (unfold do_write; rewrite E0; exact EQ).
  rewrite EQ'. clear EQ EQ' E0. vsimpl_in L'. vsimpl_in P'.
  rewrite CO, Gcfg, Gcbg in P'. fold row col in P'.
  pose proof (cell_after_stores (data v) d' row col b fg bg Hcol P') as CS.
  assert (D1 : forall v1, data v1 = d' -> cy v1 = cy v -> vy v1 = vy v -> Dyn v1).
  { intros v1 E1 E2 E3. unfold Dyn. rewrite E1, E2, E3. split; [lia|]. split; [lia|]. split; [lia|].
    intros i j Hi1 Hi2 Hj. rewrite CS by assumption.
    destruct (N.eqb_spec i row); [unfold row in *; lia|]. cbn [andb]. now apply DB. }
  assert (LR1 : LinesRel d' (r_lines (r_put r (b, fg, bg)))).
  { unfold r_put. cbn [r_lines]. rewrite EV, EY, EX. fold row col.
    apply (linesrel_put (data v)); try assumption. intros i j _ Hj. now apply CS. }
  unfold K. destruct adv; [|eexists; split; [reflexivity|]].
  - (* store and advance *)
    cbn zeta. vsimpl. rewrite Gvw, CO. fold row col.
    rewrite (w64_small (off row col + 3)) by (unfold two64, two32 in *; lia).
    rewrite (w32_small (cx v + 1)) by lia.
    unfold r_putc, e_putc. rewrite EX.
    destruct (N.ltb_spec w (cx v + 1)) as [A|A].
    + (* wrap after the last column *)
      destruct (N.ltb_spec (cx v) w) as [B|_]; [lia|].
      match goal with |- context [lf ?a true] => set (v1 := a) end.
      destruct (lf_sim v1 (r_put r (b, fg, bg)) G (D1 v1 eq_refl eq_refl eq_refl) (conj LR1 (conj EV EY)))
        as (v' & E & G' & D' & C' & R' & S' & T').
      exists v'. split; [exact E|]. split; [exact G'|]. split; [exact D'|]. split; [exact C'|].
      split; [exact R'|]. split; [exact S'|].
      rewrite T'. change (trace v1) with t0. change (active v1) with (active v).
      unfold t0. now rewrite rev_app_distr, app_assoc.
    + destruct (N.ltb_spec (cx v) w) as [B|B]; [|lia].
      eexists. split; [reflexivity|]. split; [exact G|]. split; [now apply D1|].
      split; [|split; [|split]].
      * unfold Cur. vsimpl. fold row. split; [lia|].
        unfold col. replace (cx v + 1 - 1) with (cx v - 1 + 1) by lia. now rewrite off_S.
      * exact (conj (conj LR1 (conj EV EY)) eq_refl).
      * reflexivity.
      * vsimpl. unfold t0. now rewrite app_nil_r.
  - (* store only *)
    split; [exact G|]. split; [now apply D1|]. split; [exact C|].
    split; [exact (conj (conj LR1 (conj EV EY)) EX)|]. split; reflexivity.
Qed.


Lemma set_cursor_sim v r x y : Geo v -> Dyn v -> R v r ->
  Geo (set_cursor_position v x y) /\ Dyn (set_cursor_position v x y) /\ Cur (set_cursor_position v x y) /\
  R (set_cursor_position v x y) (r_set_cursor w h r x y) /\
  st (set_cursor_position v x y) = st v /\ trace (set_cursor_position v x y) = trace v.
Proof.
  intros G (DL & DY & DV & DB) ((LR & EV & EY) & EX). pose proof G as (Ga & Gvw & Gvh & _).
  unfold set_cursor_position, r_set_cursor. rewrite Ga. cbn [negb]. rewrite Gvw, Gvh, EV.
  fold (clamp 1 w x). fold (clamp 1 h y).
  assert (CX : 1 <= clamp 1 w x <= w).
  { unfold clamp. destruct (N.ltb_spec x 1); [lia|]. destruct (N.ltb_spec w x); lia. }
  assert (CY : 1 <= clamp 1 h y <= h).
  { unfold clamp. destruct (N.ltb_spec y 1); [lia|]. destruct (N.ltb_spec h y); lia. }
  set (v1 := set_cy (set_cx v (clamp 1 w x)) (clamp 1 h y)).
  destruct (udo_sim v1 _ G (conj DL (conj CY (conj DV DB))) CX (R_mk v1 _ LR)) as (G' & D' & C' & R').
  repeat split; try apply G'; try apply D'; try apply C'; apply R'.
Qed.

Lemma cr_sim v r : Geo v -> Dyn v -> R v r ->
  Geo (cr v) /\ Dyn (cr v) /\ Cur (cr v) /\ R (cr v) (mkR (r_lines r) (r_view r) 1 (r_y r)) /\
  st (cr v) = st v /\ trace (cr v) = trace v.
Proof.
  intros G D ((LR & EV & EY) & EX). rewrite EV, EY.
  destruct (udo_sim (set_cx v 1) _ G D ltac:(vsimpl; lia) (R_mk (set_cx v 1) _ LR)) as (G' & D' & C' & R').
  repeat split; try apply G'; try apply D'; try apply C'; apply R'.
Qed.

Lemma active_st v v' : st v' = st v -> active v' = active v.
Proof. unfold active. now intros ->. Qed.

Lemma tab_sim n : forall v r, InvVT v -> R v r ->
  exists v', repeat_do n (fun v => do_write v 32 true) v = Ok v' /\ InvVT v' /\
    R v' (iter_n n (fun r => r_putc w h s fg bg r (blank fg bg)) r) /\ st v' = st v /\
    trace v' = rev (e_iter w h s fg bg (active v) n r) ++ trace v.
Proof.
  induction n as [|n IH]; intros v r I RR.
  - exists v. cbn [repeat_do iter_n e_iter rev app]. auto.
  - destruct I as (G & D & C).
    destruct (do_write_sim v r 32 true G D C RR) as (v1 & E1 & G1 & D1 & C1 & R1 & S1 & T1).
    destruct (IH v1 _ (conj G1 (conj D1 C1)) R1) as (v2 & E2 & I2 & R2 & S2 & T2).
    exists v2. cbn [repeat_do iter_n e_iter]. rewrite E1. cbn [bind].
    split; [exact E2|]. split; [exact I2|]. split; [exact R2|]. split; [congruence|].
    rewrite T2, T1, (active_st _ _ S1). unfold blank. now rewrite rev_app_distr, app_assoc.
Qed.

Lemma write_byte_sim v r b : InvVT v -> R v r ->
  exists v', write_byte v b = Ok (v', 0) /\ InvVT v' /\ R v' (r_byte w h s tab fg bg r b) /\
    st v' = st v /\ trace v' = rev (e_byte w h s tab fg bg (active v) r b) ++ trace v.
Proof.
  intros (G & D & C) RR.
  pose proof G as (Ga & Gvw & Gvh & Gtw & Gth & Gtab & Gdfg & Gdbg & Gcfg & Gcbg).
  pose proof RR as ((LR & EV & EY) & EX). pose proof C as (CX & CO).
  pose proof w_small.
  unfold write_byte, r_byte, e_byte. rewrite Ga. cbn [negb].
  destruct (N.eqb_spec b 13).
  { destruct (cr_sim v r G D RR) as (G1 & D1 & C1 & R1 & S1 & T1).
    cbn [bind]. eexists. split; [reflexivity|].
    split; [exact (conj G1 (conj D1 C1))|]. split; [exact R1|]. split; [exact S1|exact T1]. }
  destruct (N.eqb_spec b 10).
  { destruct D as (DL & DY & DV & DB).
    destruct (lf_sim v r G (conj DL (conj DY (conj DV DB))) (conj LR (conj EV EY))) as (v' & E & G' & D' & C' & R' & S' & T').
    rewrite E. cbn [bind]. exists v'. split; [reflexivity|].
    split; [exact (conj G' (conj D' C'))|]. split; [exact R'|]. split; [exact S'|exact T']. }
  destruct (N.eqb_spec b 8).
  { rewrite EX. destruct (N.ltb_spec 1 (cx v)) as [A|A].
    - rewrite sub32_1 by lia.
      destruct (set_cursor_sim v r (cx v - 1) (cy v) G D RR) as (G1 & D1 & C1 & R1 & S1 & T1).
      assert (RS : r_set_cursor w h r (cx v - 1) (cy v) = mkR (r_lines r) (r_view r) (cx v - 1) (r_y r)).
      { unfold r_set_cursor, clamp. destruct D as (_ & DY & _).
        destruct (N.ltb_spec (cx v - 1) 1); [lia|]. destruct (N.ltb_spec w (cx v - 1)); [lia|].
        destruct (N.ltb_spec (cy v) 1); [lia|]. destruct (N.ltb_spec h (cy v)); [lia|]. now rewrite EY. }
      rewrite RS in R1.
      destruct (do_write_sim _ _ 32 false G1 D1 C1 R1) as (v' & E & G' & D' & C' & R' & S' & T').
      rewrite E. cbn [bind]. exists v'. split; [reflexivity|]. split; [exact (conj G' (conj D' C'))|].
      split; [exact R'|]. split; [congruence|]. rewrite T', T1, (active_st _ _ S1). reflexivity.
    - cbn [bind]. exists v. split; [reflexivity|].
      split; [exact (conj G (conj D C))|]. split; [exact RR|]. split; reflexivity. }
  destruct (N.eqb_spec b 9).
  { rewrite Gtab.
    destruct (tab_sim (N.to_nat tab) v r (conj G (conj D C)) RR) as (v' & E & I' & R' & S' & T').
    rewrite E. cbn [bind]. exists v'. split; [reflexivity|].
    split; [exact I'|]. split; [exact R'|]. split; [exact S'|exact T']. }
  destruct (do_write_sim v r b true G D C RR) as (v' & E & G' & D' & C' & R' & S' & T').
  rewrite E. cbn [bind]. exists v'. split; [reflexivity|].
  split; [exact (conj G' (conj D' C'))|]. split; [exact R'|]. split; [exact S'|exact T'].
Qed.

Lemma write_sim bs : forall v r c, InvVT v -> R v r ->
  exists v', write v bs c = Ok (v', c + N.of_nat (length bs), 0) /\ InvVT v' /\
    R v' (fold_left (r_byte w h s tab fg bg) bs r) /\ st v' = st v /\
    trace v' = rev (e_bytes w h s tab fg bg (active v) r bs) ++ trace v.
Proof.
  induction bs as [|b t IH]; intros v r c I RR.
  - exists v. cbn [write length fold_left e_bytes rev app]. replace (c + N.of_nat 0) with c by lia. auto.
  - destruct (write_byte_sim v r b I RR) as (v1 & E1 & I1 & R1 & S1 & T1).
    destruct (IH v1 _ (c + 1) I1 R1) as (v2 & E2 & I2 & R2 & S2 & T2).
    exists v2. cbn [write fold_left e_bytes]. rewrite E1. cbn [bind N.eqb]. rewrite E2.
    split; [do 3 f_equal; cbn [length]; lia|]. split; [exact I2|]. split; [exact R2|]. split; [congruence|].
    rewrite T2, T1, (active_st _ _ S1). now rewrite rev_app_distr, app_assoc.
Qed.

(** ---- the activation redraw ---- *)
Lemma redraw_row_ok row y : row < h + s ->
  forall n x0 v, length (data v) = N.to_nat size -> 1 <= x0 -> x0 - 1 + N.of_nat n <= w ->
  redraw_row v (seqN x0 (N.of_nat n)) (off row (x0 - 1)) y =
  Ok (set_trace v (rev (map (fun x => write_call (cellN (data v) (off row (x - 1))) x y) (seqN x0 (N.of_nat n))) ++ trace v)).
Proof.
  intros Hrow. induction n as [|n IH]; intros x0 v DL Hx Hn.
  - cbn [N.of_nat]. rewrite seqN_0. cbn [redraw_row map rev app]. destruct v; reflexivity.
  - rewrite seqN_cons by lia. replace (N.of_nat (S n) - 1) with (N.of_nat n) by lia.
    cbn [redraw_row map].
    pose proof (off_lt row (x0 - 1) Hrow ltac:(lia)) as B. unfold size in *.
    rewrite (w32_small (off row (x0 - 1) + 1)) by lia.
    rewrite (w32_small (off row (x0 - 1) + 2)) by lia.
    rewrite (w32_small (off row (x0 - 1) + 3)) by lia.
    rewrite !getN_some by lia.
    rewrite <- off_S. replace (x0 - 1 + 1) with (x0 + 1 - 1) by lia.
    rewrite IH; [|vsimpl; assumption|lia|lia].
    vsimpl. unfold cellN at 2. cbn [write_call rev]. rewrite <- app_assoc. reflexivity.
Qed.

Definition redraw_calls (d : list N) (vy0 : N) (ys : list N) : list ccall :=
  flat_map (fun y => map (fun x => write_call (cellN d (off (vy0 + y - 1) (x - 1))) x y) (seqN 1 w)) ys.

Lemma redraw_rows_ok : forall n y0 v, Geo v -> Dyn v -> 1 <= y0 -> y0 - 1 + N.of_nat n <= h ->
  redraw_rows v (seqN y0 (N.of_nat n)) =
  Ok (set_trace v (rev (redraw_calls (data v) (vy v) (seqN y0 (N.of_nat n))) ++ trace v)).
Proof.
  induction n as [|n IH]; intros y0 v G D Hy Hn.
  - cbn [N.of_nat]. rewrite seqN_0. cbn [redraw_rows redraw_calls flat_map rev app]. destruct v; reflexivity.
  - pose proof G as (Ga & Gvw & Gvh & Gtw & Gth & Gtab & Gdfg & Gdbg & Gcfg & Gcbg).
    pose proof D as (DL & DY & DV & DB).
    pose proof hs3_small. pose proof w3_small. pose proof w_small.
    rewrite seqN_cons by lia. replace (N.of_nat (S n) - 1) with (N.of_nat n) by lia.
    cbn [redraw_rows redraw_calls flat_map]. rewrite Gvw.
    rewrite sub32_1 by lia. rewrite (w32_small (w * 3)) by lia.
    rewrite (w32_small (y0 - 1 + vy v)) by lia.
    pose proof (off_lt (vy v + y0 - 1) 0 ltac:(lia) ltac:(lia)) as B. unfold size in B.
    rewrite off_rowoff in B. unfold rowoff in B.
    replace (y0 - 1 + vy v) with (vy v + y0 - 1) by lia.
    rewrite w32_small by lia.
    replace ((vy v + y0 - 1) * (w * 3)) with (off (vy v + y0 - 1) (1 - 1)) by (unfold off; lia).
    replace w with (N.of_nat (N.to_nat w)) at 1 by lia.
    rewrite redraw_row_ok; [|lia|assumption|lia|lia].
    cbn [bind]. rewrite IH; [|exact G|exact D|lia|lia].
    vsimpl. rewrite N2Nat.id. fold (redraw_calls (data v) (vy v) (seqN (y0 + 1) (N.of_nat n))).
    rewrite rev_app_distr, <- app_assoc. reflexivity.
Qed.

Lemma redraw_calls_ref v r : Geo v -> Dyn v -> R v r ->
  redraw_calls (data v) (vy v) (seqN 1 h) = e_redraw w h r.
Proof.
  intros G (DL & DY & DV & DB) ((LR & EV & EY) & EX). destruct LR as (L & LW & LC).
  unfold redraw_calls, e_redraw. rewrite !flat_map_concat_map. f_equal. apply map_ext_in. intros y Hy. apply in_seqN in Hy.
  apply map_ext_in. intros x Hx. apply in_seqN in Hx. f_equal.
  unfold r_cell. rewrite EV. specialize (LC (vy v + y - 1) (x - 1) ltac:(lia) ltac:(lia)).
  unfold lcell in LC. now rewrite LC.
Qed.

Lemma set_state_sim v r s' : InvVT v -> R v r ->
  exists v', set_state v s' = Ok v' /\ InvVT v' /\ R v' r /\ st v' = s' /\
    trace v' = rev (if st v =? s' then [] else if s' =? tty_StateActive then e_redraw w h r else []) ++ trace v.
Proof.
  intros (G & D & C) RR. pose proof G as (Ga & _).
  unfold set_state. destruct (N.eqb_spec (st v) s') as [E|E].
  - exists v. split; [reflexivity|]. split; [exact (conj G (conj D C))|]. split; [exact RR|].
    split; [exact E|reflexivity].
  - vsimpl. rewrite Ga, andb_true_r.
    destruct (N.eqb_spec s' tty_StateActive) as [A|A].
    + pose proof G as (_ & _ & Gvh & _). cbn [vh set_st]. rewrite Gvh.
      pose proof (redraw_rows_ok (N.to_nat h) 1 (set_st v s') G D ltac:(lia) ltac:(lia)) as RD.
      rewrite N2Nat.id in RD. rewrite RD. clear RD.
      eexists. split; [reflexivity|]. vsimpl.
      rewrite (redraw_calls_ref v r G D RR).
      split; [exact (conj G (conj D C))|]. split; [exact RR|]. split; reflexivity.
    + eexists. split; [reflexivity|]. vsimpl.
      split; [exact (conj G (conj D C))|]. split; [exact RR|]. split; reflexivity.
Qed.


(** ---- NewVT + AttachTo ---- *)
Lemma attach_sim :
  exists v0, attach (new_vt tab s) w h fg bg = Ok v0 /\ InvVT v0 /\ R v0 (r_init w h s fg bg) /\
             st v0 = tty_newState /\ trace v0 = [].
Proof.
  pose proof hs3_small. pose proof w3_small.
  assert (HP : w * (h + s) < two32) by (unfold two32 in *; nia).
  unfold attach, new_vt. cbn [sb tabw doff st trace].
  rewrite (w32_small (h + s)) by lia. rewrite (w32_small (w * (h + s))) by lia.
  rewrite (w32_small (w * (h + s) * 3)) by assumption.
  rewrite N.mod_mul by lia. cbn [N.eqb]. rewrite N.div_mul by lia.
  eexists. split; [reflexivity|]. split; [|split; [|split; reflexivity]].
  - split; [|split].
    + unfold Geo. cbn. repeat split; reflexivity.
    + unfold Dyn. vsimpl. split; [|split; [|split]].
      * rewrite blank_cells_length. unfold size. lia.
      * lia.
      * lia.
      * intros i j Hi1 Hi2 Hj. unfold off. rewrite blank_cells_cell; [reflexivity|]. nia.
    + unfold Cur. vsimpl. split; [lia|]. unfold off. lia.
  - unfold R, Rl, r_init. vsimpl. cbn [r_lines r_view r_x r_y].
    split; [split; [apply linesrel_init|split; reflexivity]|reflexivity].
Qed.

(** ---- one API call ---- *)
Lemma step_sim v r o : InvVT v -> R v r -> op_wf o ->
  exists v' res, step v o = Ok (v', res) /\ InvVT v' /\ R v' (r_step w h s tab fg bg r o) /\
    st v' = st_step (st v) o /\
    trace v' = rev (e_step w h s tab fg bg (st v) r o) ++ trace v.
Proof.
  intros I RR WF. destruct o as [w0 h0 f0 b0|bs|b|x y|s']; cbn [op_wf] in WF; [contradiction|..];
    cbn [step r_step st_step e_step].
  - destruct (write_sim bs v r 0 I RR) as (v' & E & I' & R' & S' & T').
    rewrite E. cbn [bind]. do 2 eexists. split; [reflexivity|]. auto.
  - destruct (write_byte_sim v r b I RR) as (v' & E & I' & R' & S' & T').
    rewrite E. cbn [bind]. do 2 eexists. split; [reflexivity|]. auto.
  - destruct I as (G & D & C).
    destruct (set_cursor_sim v r x y G D RR) as (G1 & D1 & C1 & R1 & S1 & T1).
    do 2 eexists. split; [reflexivity|]. split; [exact (conj G1 (conj D1 C1))|]. auto.
  - destruct (set_state_sim v r s' I RR) as (v' & E & I' & R' & S' & T').
    rewrite E. cbn [bind]. do 2 eexists. split; [reflexivity|]. auto.
Qed.

(** ---- histories: the reference terminal's steps, the state byte and the expected calls of a whole run ---- *)
Fixpoint e_run (st : N) (r : rterm) (ops : list op) : list ccall :=
  match ops with
  | [] => []
  | o :: t => e_step w h s tab fg bg st r o ++ e_run (st_step st o) (r_step w h s tab fg bg r o) t
  end.

Lemma run_sim ops : forall v r, InvVT v -> R v r -> Forall op_wf ops ->
  exists v', run_ops v ops = Ok v' /\ InvVT v' /\ R v' (fold_left (r_step w h s tab fg bg) ops r) /\
    st v' = fold_left st_step ops (st v) /\ trace v' = rev (e_run (st v) r ops) ++ trace v.
Proof.
  induction ops as [|o t IH]; intros v r I RR WF.
  - exists v. cbn [run_ops fold_left e_run rev app]. auto.
  - inversion WF as [|? ? WFo WFt]; subst.
    destruct (step_sim v r o I RR WFo) as (v1 & res & E & I1 & R1 & S1 & T1).
    destruct (IH v1 _ I1 R1 WFt) as (v2 & E2 & I2 & R2 & S2 & T2).
    exists v2. cbn [run_ops fold_left e_run]. rewrite E. cbn [bind fst].
    split; [exact E2|]. split; [exact I2|]. split; [exact R2|]. split; [now rewrite S2, S1|].
    rewrite T2, T1, S1. now rewrite rev_app_distr, app_assoc.
Qed.

Lemma boot_sim ops : Forall op_wf ops ->
  exists v0 v, attach (new_vt tab s) w h fg bg = Ok v0 /\ run_ops v0 ops = Ok v /\ InvVT v /\
    R v (ref_run w h s tab fg bg ops) /\ st v = fold_left st_step ops tty_newState /\
    rev (trace v) = e_run tty_newState (r_init w h s fg bg) ops.
Proof.
  intros WF. destruct attach_sim as (v0 & E0 & I0 & R0 & S0 & T0).
  destruct (run_sim ops v0 _ I0 R0 WF) as (v & E & I & RR & S & T).
  exists v0, v. rewrite S0 in S, T. rewrite T, T0, app_nil_r, rev_involutive. auto 6.
Qed.

Lemma R_abs v r : Geo v -> R v r -> abs v = r.
Proof.
  intros (Ga & Gvw & Gvh & Gtw & Gth & _) ((LR & EV & EY) & EX).
  destruct r as [ls vw0 x0 y0]. cbn [r_lines r_view r_x r_y] in *. subst. unfold abs. f_equal.
  apply (linesrel_unique (data v)); [|assumption]. now apply linesrel_abs.
Qed.

End Geometry.

(** ---- the C17 statements ---- *)
Theorem vt_refines_thm :
  forall w h sb tab fg bg ops,
    1 <= w -> 1 <= h -> tab <= 255 -> w * (h + sb) * 3 < two32 -> Forall op_wf ops ->
    exists v0 v, attach (new_vt tab sb) w h fg bg = Ok v0 /\ run_ops v0 ops = Ok v /\
                 abs v = ref_run w h sb tab fg bg ops.
Proof.
  intros w h sb tab fg bg ops Hw Hh Ht Hsz WF.
  destruct (boot_sim w h sb tab fg bg Hw Hh Hsz ops WF) as (v0 & v & E0 & E & I & RR & _).
  exists v0, v. split; [exact E0|]. split; [exact E|].
  apply (R_abs w h sb tab fg bg Hw Hh Hsz); [apply I|exact RR].
Qed.
