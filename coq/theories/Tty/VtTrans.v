(** The loop-free methods of tty.VT as modelled by hand in Tty/Vt.v ARE the Gallina translation that
    gen/gotrans regenerates from kernel/device/tty/vt.go on every run (Gen/Trans_tty_vt.v): State,
    CursorPosition, updateDataOffset (the uint32 arithmetic of the buffer offset, widened to uint),
    SetCursorPosition (clamping, parallel assignment, recomputation of the offset) and cr.
    The methods with loops and console calls (AttachTo, SetState, Write, WriteByte, doWrite, lf) are
    outside the subset of this (first) mode of the translator; they are tied by the extended mode in
    Tty/VtFullTrans.v (Gen/Trans_tty_vt_full.v), which also re-proves the five methods below for the
    record with the console trace. *)
From Coq Require Import NArith Lia List Bool.
From FF Require Import Lib.Word Lib.GoOps Gen.Trans_tty_vt Gen.Consts_device_tty Tty.Vt.
Local Open Scope N_scope.

Definition to_go (v : vt) : go_tty_VT :=
  mk_go_tty_VT (attached v) (tw v) (th v) (vw v) (vh v) (sb v) (data v) (tabw v) (dfg v) (cfg v) (dbg v) (cbg v)
               (cx v) (cy v) (vy v) (doff v) (st v).

Ltac tproj :=
  cbn [f_VT_cons f_VT_termWidth f_VT_termHeight f_VT_viewportWidth f_VT_viewportHeight f_VT_scrollback f_VT_data
       f_VT_tabWidth f_VT_defaultFg f_VT_curFg f_VT_defaultBg f_VT_curBg f_VT_cursorX f_VT_cursorY f_VT_viewportY
       f_VT_dataOffset f_VT_state
       attached Vt.vw Vt.vh Vt.tw Vt.th Vt.sb tabw dfg dbg cfg cbg Vt.cx Vt.cy Vt.vy doff st data trace] in *.

Lemma doff_eq vy cy vw cx :
  gw 64 (gw 32 (gw 32 (gw 32 (vy + gsub 32 cy 1) * gw 32 (vw * 3)) + gw 32 (gsub 32 cx 1 * 3))) =
  w32 (w32 (w32 (vy + sub32 cy 1) * w32 (vw * 3)) + w32 (sub32 cx 1 * 3)).
Proof.
  change (gsub 32 cy 1) with (sub32 cy 1). change (gsub 32 cx 1) with (sub32 cx 1).
  change (gw 32) with w32. unfold gw. apply N.mod_small.
  pose proof (N.mod_lt (w32 (w32 (vy + sub32 cy 1) * w32 (vw * 3)) + w32 (sub32 cx 1 * 3)) two32 ltac:(discriminate)) as H.
  unfold w32 at 1. change (2 ^ 64) with (two32 * two32). unfold two32 in *. lia.
Qed.

Theorem state_is_translation v : go_tty_VT_State (to_go v) = Some (to_go v, st v).
Proof. reflexivity. Qed.

Theorem cursorPosition_is_translation v : go_tty_VT_CursorPosition (to_go v) = Some (to_go v, (cx v, cy v)).
Proof. reflexivity. Qed.

Theorem updateDataOffset_is_translation v :
  go_tty_VT_updateDataOffset (to_go v) = Some (to_go (update_data_offset v), tt).
Proof.
  unfold go_tty_VT_updateDataOffset, update_data_offset, set_doff, to_go.
  tproj.
  rewrite doff_eq. reflexivity.
Qed.

Theorem cr_is_translation v : go_tty_VT_cr (to_go v) = Some (to_go (cr v), tt).
Proof.
  unfold go_tty_VT_cr, cr.
  change (gw 32 1) with 1.
  pose proof (updateDataOffset_is_translation (set_cx v 1)) as H.
  unfold to_go, set_cx in *.
  tproj.
  rewrite H. reflexivity.
Qed.

Theorem setCursorPosition_is_translation v x y :
  go_tty_VT_SetCursorPosition (to_go v) x y = Some (to_go (set_cursor_position v x y), tt).
Proof.
  destruct (attached v) eqn:E.
  2:{ unfold go_tty_VT_SetCursorPosition, set_cursor_position.
      change (f_VT_cons (to_go v)) with (attached v). rewrite E. reflexivity. }
  unfold go_tty_VT_SetCursorPosition, set_cursor_position.
  change (gw 32 1) with 1.
  assert (K: forall X Y, match go_tty_VT_updateDataOffset (to_go (set_cy (set_cx v X) Y)) with
                         | None => None | Some (v_t, _) => Some (v_t, tt) end =
                         Some (to_go (update_data_offset (set_cy (set_cx v X) Y)), tt)).
  { intros X Y. rewrite updateDataOffset_is_translation. reflexivity. }
  replace (negb (f_VT_cons (to_go v))) with false
    by (change (f_VT_cons (to_go v)) with (attached v); rewrite E; reflexivity).
  rewrite E. cbn [negb].
  change (f_VT_viewportWidth (to_go v)) with (vw v).
  change (f_VT_viewportHeight (to_go v)) with (vh v).
  destruct (x <? 1); destruct (vw v <? x); destruct (y <? 1); destruct (vh v <? y); exact (K _ _).
Qed.
