(** The parts of the two console drivers that build the geometry the C19 theorems quantify over - the constructors
    NewVesaFbConsole / NewVgaTextConsole, SetFont (the character grid, by uint32 division) and the size of the
    framebuffer mapping in DriverInit - against the Gallina translation regenerated from vesa_fb.go / vga_text.go on
    every run (Gen/Trans_console_vesa.v, Gen/Trans_console_vga.v; gen/gotrans/ext_ctor.go).

    [to_gs] / [to_gv] (Console/VesaTrans.v, Console/VgaTrans.v) map the model's console and framebuffer memory to the
    translation's record.  DriverInit as a whole is not translated (unsafe slice header, a call through a function
    variable): the translator emits the three integer expressions that matter - the size handed to mapRegionFn and
    the Len / Cap of the slice header - as functions of the record ("probes"), in the scope of [fbSize := ..]. *)
From Coq Require Import NArith ZArith PArith String List Bool Lia.
From Coq Require Import ZifyBool ZifyN ZifyNat.
From FF Require Import Lib.Word Lib.GoOps Lib.GoOpsExt Lib.GoOpsFmt Gen.Consts_device_tty Gen.Consts_device_video_console.
From FF Require Import Gen.Trans_console_vesa Gen.Trans_console_vga.
From FF Require Import Console.Mem Console.MemProofs Console.Loop Console.Ops Console.Vga Console.VgaProofs Console.Vesa Console.VesaProofs.
From FF Require Console.VgaTrans Console.VesaTrans.
Import ListNotations.
Local Open Scope N_scope.

Notation to_gs := VesaTrans.to_gs.
Notation to_gv := VgaTrans.to_gv.
Notation fb_list := VgaTrans.fb_list.

(** before DriverInit: no framebuffer *)
Definition no_fb : fbuf := fresh 0 (fun _ => 0).

Lemma gw32_gw8 x : gw 32 (gw 8 x) = gw 8 x.
Proof.
  unfold gw at 1. apply N.mod_small. unfold gw. change (2 ^ 8) with 256. change (2 ^ 32) with 4294967296.
  pose proof (N.mod_lt x 256 ltac:(discriminate)). lia.
Qed.

(** ---- NewVesaFbConsole ---- *)
(** the record the translated constructor returns is the model's [new_vesa] (no palette, no font, no framebuffer
    yet), for every argument; [ci] = whether colorInfo is non-nil, [bpp] a uint8 *)
Theorem vesa_constructor_is_translation w h bpp0 pitch0 (ci : bool) phys cinf p :
  bpp0 < 256 ->
  go_console_NewVesaFbConsole w h bpp0 pitch0 ci phys =
  set_f_VesaFbConsole_colorInfo (to_gs (new_vesa w h bpp0 pitch0 cinf 0 p) phys no_fb) ci.
Proof.
  intros Hb. unfold go_console_NewVesaFbConsole, new_vesa, VesaTrans.to_gs, set_f_VesaFbConsole_colorInfo.
  cbn [bpp bytespp pw ph offsetY pitch wchars hchars f_VesaFbConsole_bpp f_VesaFbConsole_bytesPerPixel
       f_VesaFbConsole_fbPhysAddr f_VesaFbConsole_fb f_VesaFbConsole_width f_VesaFbConsole_height f_VesaFbConsole_offsetY
       f_VesaFbConsole_pitch f_VesaFbConsole_font f_VesaFbConsole_widthInChars f_VesaFbConsole_heightInChars
       f_VesaFbConsole_palette f_VesaFbConsole_defaultFg f_VesaFbConsole_defaultBg f_VesaFbConsole_clearChar].
  rewrite gw32_gw8.
  replace (gw 32 bpp0) with bpp0 by (unfold gw; symmetry; apply N.mod_small; change (2 ^ 32) with 4294967296; lia).
  reflexivity.
Qed.

(** ---- SetFont ---- *)
(** [font_GlyphHeight] / [font_GlyphWidth]: what the code reads through f.  Equal to the model's [set_font] for EVERY
    console and font, including the division-by-zero panics of a font with a zero dimension *)
Theorem vesa_setFont_is_translation c phys m f :
  go_console_VesaFbConsole_SetFont (to_gs c phys m) true (f_gh f) (f_gw f) =
  match set_font c f with Some c' => GOk (to_gs c' phys m, tt) | None => GPanic end.
Proof.
  unfold go_console_VesaFbConsole_SetFont, set_font, gdiv. cbn [negb]. VesaTrans.ssimp.
  cbn [set_f_VesaFbConsole_font set_f_VesaFbConsole_widthInChars set_f_VesaFbConsole_heightInChars
       f_VesaFbConsole_width f_VesaFbConsole_height f_VesaFbConsole_offsetY].
  destruct (f_gw f =? 0); [reflexivity|]. cbn [orb]. destruct (f_gh f =? 0); reflexivity.
Qed.

Theorem vesa_setFont_nil c phys m gh gw0 :
  go_console_VesaFbConsole_SetFont (to_gs c phys m) false gh gw0 = GOk (to_gs c phys m, tt).
Proof. reflexivity. Qed.

(** constructor, then SetFont (no logo): the translation's record is the model's console of C19_vesa_constructed *)
Theorem vesa_construct_setFont w h bpp0 pitch0 phys cinf p f :
  bpp0 < 256 ->
  go_console_VesaFbConsole_SetFont (go_console_NewVesaFbConsole w h bpp0 pitch0 true phys) true (f_gh f) (f_gw f) =
  match set_font (new_vesa w h bpp0 pitch0 cinf 0 p) f with
  | Some c' => GOk (to_gs c' phys no_fb, tt) | None => GPanic end.
Proof.
  intros Hb. rewrite (vesa_constructor_is_translation w h bpp0 pitch0 true phys cinf p Hb).
  change (set_f_VesaFbConsole_colorInfo (to_gs (new_vesa w h bpp0 pitch0 cinf 0 p) phys no_fb) true)
    with (to_gs (new_vesa w h bpp0 pitch0 cinf 0 p) phys no_fb).
  apply vesa_setFont_is_translation.
Qed.

(** ---- DriverInit: the size of the mapping and of the slice over it ---- *)
(** [fbSize := uintptr(cons.height * cons.pitch)]: a uint32 product, widened *)
Definition vesa_map_size (c : vesa) : N := mul32 (ph c) (pitch c).

Lemma gw64_gw32 x : gw 64 (gw 32 x) = gw 32 x.
Proof.
  unfold gw at 1. apply N.mod_small. unfold gw. change (2 ^ 32) with 4294967296. change (2 ^ 64) with 18446744073709551616.
  pose proof (N.mod_lt x 4294967296 ltac:(discriminate)). lia.
Qed.

Theorem vesa_driverInit_sizes c phys m :
  go_console_VesaFbConsole_DriverInit_mapSize (to_gs c phys m) = vesa_map_size c /\
  go_console_VesaFbConsole_DriverInit_fbLen (to_gs c phys m) = vesa_map_size c /\
  go_console_VesaFbConsole_DriverInit_fbCap (to_gs c phys m) = vesa_map_size c.
Proof.
  unfold go_console_VesaFbConsole_DriverInit_mapSize, go_console_VesaFbConsole_DriverInit_fbLen,
    go_console_VesaFbConsole_DriverInit_fbCap, vesa_map_size, mul32. VesaTrans.ssimp. cbv zeta.
  rewrite !gw64_gw32. repeat split; reflexivity.
Qed.

(** the framebuffer DriverInit maps has exactly the length [vesa_wf] demands ([wf_flen]) when height * pitch fits 32
    bits ([wf_size]); beyond that the uint32 product wraps and the mapping is SHORTER than height * pitch *)
Theorem vesa_map_size_wf c : ph c * pitch c < two32 -> vesa_map_size c = ph c * pitch c.
Proof. intros H. unfold vesa_map_size, mul32, w32. apply N.mod_small. exact H. Qed.

Theorem vesa_map_size_wraps c : two32 <= ph c * pitch c -> vesa_map_size c < ph c * pitch c.
Proof.
  intros H. unfold vesa_map_size, mul32, w32, two32 in *.
  pose proof (N.mod_lt (ph c * pitch c) 4294967296 ltac:(discriminate)). lia.
Qed.

(** a console whose other [vesa_wf] requirements hold gets [wf_flen] from DriverInit *)
Theorem vesa_driverInit_establishes_flen c phys m m' :
  ph c * pitch c < two32 ->
  flen m' = go_console_VesaFbConsole_DriverInit_fbLen (to_gs c phys m) -> flen m' = ph c * pitch c.
Proof.
  intros Hs E. rewrite E. destruct (vesa_driverInit_sizes c phys m) as [_ [L _]]. rewrite L. apply vesa_map_size_wf. exact Hs.
Qed.

(** ---- the text console ---- *)
Theorem vga_constructor_is_translation cols rows phys :
  go_console_NewVgaTextConsole cols rows phys = to_gv (mkVga cols rows) phys no_fb.
Proof. reflexivity. Qed.

(** [fbSize := uintptr(cons.width * cons.height * 2)], Len = Cap = [int(fbSize >> 1)] 16-bit cells *)
Definition vga_map_size (c : vga) : N := mul32 (mul32 (vw c) (vh c)) 2.
Definition vga_fb_cells (c : vga) : N := N.shiftr (vga_map_size c) 1.

Theorem vga_driverInit_sizes c phys m :
  go_console_VgaTextConsole_DriverInit_mapSize (to_gv c phys m) = vga_map_size c /\
  go_console_VgaTextConsole_DriverInit_fbLen (to_gv c phys m) = vga_fb_cells c /\
  go_console_VgaTextConsole_DriverInit_fbCap (to_gv c phys m) = vga_fb_cells c.
Proof.
  unfold go_console_VgaTextConsole_DriverInit_mapSize, go_console_VgaTextConsole_DriverInit_fbLen,
    go_console_VgaTextConsole_DriverInit_fbCap, vga_fb_cells, vga_map_size, mul32, VgaTrans.to_gv.
  cbn [f_VgaTextConsole_width f_VgaTextConsole_height]. cbv zeta. rewrite !gw64_gw32.
  assert (H : forall x, gw 64 (N.shiftr (gw 32 x) 1) = N.shiftr (gw 32 x) 1).
  { intros x. apply gw64_small'. rewrite N.shiftr_div_pow2. unfold gw. change (2 ^ 32) with 4294967296.
    change (2 ^ 64) with 18446744073709551616. change (2 ^ 1) with 2.
    pose proof (N.mod_lt x 4294967296 ltac:(discriminate)). lia. }
  rewrite H. repeat split; reflexivity.
Qed.

(** the slice DriverInit lays over the mapping has the [width * height] cells [vga_wf] demands when the BYTE size
    width * height * 2 fits 32 bits *)
Theorem vga_fb_cells_wf c : vw c * vh c * 2 < two32 -> vga_fb_cells c = vw c * vh c.
Proof.
  intros H. unfold vga_fb_cells, vga_map_size, mul32, w32, two32 in *.
  rewrite (N.mod_small (vw c * vh c)) by lia. rewrite N.mod_small by lia.
  rewrite N.shiftr_div_pow2. change (2 ^ 1) with 2. lia.
Qed.

Theorem vga_driverInit_establishes_wf c phys m m' :
  1 <= vw c -> 1 <= vh c -> vw c * vh c * 2 < two32 ->
  flen m' = go_console_VgaTextConsole_DriverInit_fbLen (to_gv c phys m) -> vga_wf c m'.
Proof.
  intros H1 H2 H3 E. destruct (vga_driverInit_sizes c phys m) as [_ [L _]]. rewrite L, vga_fb_cells_wf in E by exact H3.
  unfold vga_wf, two32 in *. repeat split; try assumption; lia.
Qed.

(** [vga_wf] asks only for width * height < 2^32: between 2^31 and 2^32 cells the byte size wraps and the slice
    DriverInit builds is shorter than [vga_wf] assumes (no such text mode exists; recorded as an observation) *)
Theorem vga_fb_cells_short : exists c, vw c * vh c < two32 /\ 1 <= vw c /\ 1 <= vh c /\ vga_fb_cells c < vw c * vh c.
Proof. exists (mkVga 65536 32768). vm_compute. repeat split; discriminate || reflexivity. Qed.
