(** The hand-written model of the VGA text console (Console/Vga.v: [vga_write], [vga_fill], [vga_scroll]) IS the
    Gallina translation that gen/gotrans regenerates from kernel/device/video/console/vga_text.go on every run
    (Gen/Trans_console_vga.v: Write, Fill, Scroll; Dimensions and DefaultColors have no counterpart in the model
    and are stated directly).

    The translation's record has the fields of VgaTextConsole: width, height, fbPhysAddr, fb (the []uint16 cells
    as a list), palette (only its length is used), defaultFg/Bg, clearChar.  [to_gv] maps the model's
    console [c] and framebuffer memory [m] (Console/Mem.v: a length and a load function) to it, with the
    generated constants for the colours; [fb_list m] is the table of [load m] over 0 .. flen-1.
    The model's loops run on the binary fuel [fuel32]; the translation's on unary fuel: any fuel
    >= fuel32 (2^33) reproduces every run of the model that ends ([Ok] or [Panic]).
    The simulation of a model loop by a translated loop ([step_sim], [while_sim], [whileP_sim]) and [fb_list]
    with [gidx_fb] / [gset_fb] are stated here once; Console/VesaTrans.v uses them too. *)
From Coq Require Import NArith ZArith PArith String List Bool Lia.
From Coq Require Import ZifyBool ZifyN ZifyNat.
From FF Require Import Lib.Word Lib.GoOps Lib.GoOpsExt Gen.Consts_device_tty Gen.Consts_device_video_console Gen.Trans_console_vga.
From FF Require Import Console.Mem Console.MemProofs Console.Loop Console.LoopProofs Console.Ops Console.Vga Console.VgaProofs.
Import ListNotations.
Local Open Scope N_scope.

(** ---- the abstraction ---- *)
Definition fb_list (m : fbuf) : list N := map (fun k => load m (N.of_nat k)) (seq 0 (N.to_nat (flen m))).

Definition to_gv (c : vga) (phys : N) (m : fbuf) : go_console_VgaTextConsole :=
  mk_go_console_VgaTextConsole (vw c) (vh c) phys (fb_list m) vga_paletteLen vga_defaultFg vga_defaultBg vga_clearChar.

Lemma fb_list_length m : length (fb_list m) = N.to_nat (flen m).
Proof. unfold fb_list. rewrite map_length, seq_length. reflexivity. Qed.

Lemma fb_list_nth m j : (j < N.to_nat (flen m))%nat -> nth j (fb_list m) 0 = load m (N.of_nat j).
Proof.
  intros H. unfold fb_list. apply nth_error_nth.
  rewrite nth_error_map, (nth_error_nth' (seq 0 (N.to_nat (flen m))) 0%nat) by (rewrite seq_length; exact H).
  rewrite seq_nth by exact H. reflexivity.
Qed.

(** fb[i] *)
Lemma gidx_fb m i : gidx (fb_list m) i = load_chk m i.
Proof.
  unfold load_chk. destruct (N.ltb_spec i (flen m)) as [A|A].
  - rewrite gidx_some by (unfold glen; rewrite fb_list_length; lia). rewrite fb_list_nth by lia. rewrite N2Nat.id. reflexivity.
  - apply gidx_none. unfold glen. rewrite fb_list_length. lia.
Qed.

(** fb[i] = v *)
Lemma gset_fb m i v : gset (fb_list m) i v = option_map fb_list (store_chk m i v).
Proof.
  unfold store_chk. destruct (N.ltb_spec i (flen m)) as [A|A].
  - cbn [option_map]. destruct (gset (fb_list m) i v) as [l'|] eqn:E.
    2:{ rewrite gset_some in E by (unfold glen; rewrite fb_list_length; lia). discriminate. }
    f_equal. apply nth_ext with (d := 0) (d' := 0).
    + rewrite (gset_length _ _ _ _ E), !fb_list_length, flen_store. reflexivity.
    + intros j Hj. rewrite (gset_length _ _ _ _ E), fb_list_length in Hj.
      rewrite (gset_nth _ _ _ _ j E), !fb_list_nth by (rewrite ?flen_store; exact Hj). rewrite load_store.
      destruct (Nat.eqb_spec j (N.to_nat i)); destruct (N.eqb_spec (N.of_nat j) i); try reflexivity; lia.
  - cbn [option_map]. apply gset_none. unfold glen. rewrite fb_list_length. lia.
Qed.

Ltac vsimp :=
  cbn [to_gv f_VgaTextConsole_width f_VgaTextConsole_height f_VgaTextConsole_fbPhysAddr f_VgaTextConsole_fb
       f_VgaTextConsole_palette f_VgaTextConsole_defaultFg f_VgaTextConsole_defaultBg f_VgaTextConsole_clearChar].

Lemma fold_fb c phys m l : set_f_VgaTextConsole_fb (to_gv c phys m) (fb_list l) = to_gv c phys l.
Proof. reflexivity. Qed.

Definition vres (c : vga) (phys : N) (r : res) : gres (go_console_VgaTextConsole * unit) :=
  match r with Ok m' => GOk (to_gv c phys m', tt) | Panic _ => GPanic | OutOfFuel _ => GFuel end.

(** ---- Dimensions, DefaultColors ---- *)
Theorem dimensions_trans c phys m dim :
  go_console_VgaTextConsole_Dimensions (to_gv c phys m) dim =
  GOk (to_gv c phys m, if dim =? console_Characters then (vw c, vh c) else (w32 (vw c * 8), w32 (vh c * 16))).
Proof. unfold go_console_VgaTextConsole_Dimensions. vsimp. destruct (dim =? console_Characters); reflexivity. Qed.

Theorem defaultColors_trans c phys m :
  go_console_VgaTextConsole_DefaultColors (to_gv c phys m) = GOk (to_gv c phys m, (vga_defaultFg, vga_defaultBg)).
Proof. reflexivity. Qed.

(** ---- Write ---- *)
Lemma w16_small x : x < two16 -> gw 16 x = x.
Proof. intros H. unfold gw. apply N.mod_small. exact H. Qed.

Lemma cell_trans bg fg ch : bg < two16 -> fg < two16 -> ch < two16 ->
  N.lor (gw 16 (N.shiftl (N.lor (gw 16 (N.shiftl (gw 16 bg) 4)) (gw 16 fg)) 8)) (gw 16 ch) = cell16 bg fg ch.
Proof. intros H1 H2 H3. rewrite (w16_small bg H1), (w16_small fg H2), (w16_small ch H3). reflexivity. Qed.

Theorem write_is_translation c phys m ch fg bg x y :
  ch < 256 -> fg < 256 -> bg < 256 ->
  go_console_VgaTextConsole_Write (to_gv c phys m) ch fg bg x y = vres c phys (vga_write c m ch fg bg x y).
Proof.
  intros Hch Hfg Hbg.
  cbv delta [go_console_VgaTextConsole_Write vga_write]. cbv beta zeta. vsimp.
  destruct ((x <? 1) || (vw c <? x) || (y <? 1) || (vh c <? y)); [reflexivity|].
  change (gw 8 (gsub 64 vga_paletteLen 1)) with vga_maxColorIndex.
  assert (Hd : vga_defaultFg < 256 /\ vga_defaultBg < 256) by (split; reflexivity).
  set (fg' := if vga_maxColorIndex <? fg then vga_defaultFg else fg).
  set (bg' := if vga_maxColorIndex <? bg then vga_defaultBg else bg).
  assert (Hf' : fg' < 256) by (unfold fg'; destruct (vga_maxColorIndex <? fg); lia).
  assert (Hb' : bg' < 256) by (unfold bg'; destruct (vga_maxColorIndex <? bg); lia).
  rewrite cell_trans by (unfold two16; lia).
  change (gw 32 (gw 32 (gsub 32 y 1 * vw c) + gsub 32 x 1)) with (add32 (mul32 (sub32 y 1) (vw c)) (sub32 x 1)).
  rewrite gset_fb. destruct (store_chk m _ _) as [m'|]; reflexivity.
Qed.

(** ---- the model's fuelled while-loops and the translation's [gloop] ---- *)
(** one step of a model loop against one step of its translation, states related by [Rel] *)
Definition step_sim {S St R : Type} (step : S -> sres S) (gstep : St -> gres (gctl St R)) (Rel : S -> St -> Prop) : Prop :=
  forall s t, Rel s t ->
    match step s with
    | Next s' => exists t', gstep t = GOk (GNext t') /\ Rel s' t'
    | Done s' => exists t', gstep t = GOk (GBreak t') /\ Rel s' t'
    | Fail _ => gstep t = GPanic
    | Fuel _ => True
    end.

Section Sim.
  Context {S St R : Type} (step : S -> sres S) (gstep : St -> gres (gctl St R)) (Rel : S -> St -> Prop).
  Hypothesis Hstep : step_sim step gstep Rel.

  Lemma while_sim : forall n s t fu, Rel s t -> (n <= fu)%nat ->
    match while_nat step n s with
    | Done s' => exists t', gloop fu gstep t = GOk (inl t') /\ Rel s' t'
    | Fail _ => gloop fu gstep t = GPanic
    | _ => True
    end.
  Proof.
    induction n as [|n IH]; intros s t fu HR Hfu; [exact I|].
    destruct fu as [|fu]; [lia|]. cbn [while_nat]. specialize (Hstep s t HR).
    destruct (step s) as [s'|s'|s'|s'].
    - destruct Hstep as (t' & E & HR'). rewrite (gloop_next _ _ _ _ E). apply IH; [exact HR'|lia].
    - destruct Hstep as (t' & E & HR'). exists t'. split; [apply gloop_break; exact E|exact HR'].
    - apply gloop_panic. exact Hstep.
    - exact I.
  Qed.

  Lemma whileP_sim s t fu : Rel s t -> (Pos.to_nat fuel32 <= fu)%nat ->
    match whileP step fuel32 s with
    | Done s' => exists t', gloop fu gstep t = GOk (inl t') /\ Rel s' t'
    | Fail _ => gloop fu gstep t = GPanic
    | _ => True
    end.
  Proof. intros HR Hfu. rewrite whileP_nat. apply while_sim; assumption. Qed.
End Sim.

(** ---- Scroll ---- *)
Definition claim (c : vga) (phys : N) (r : res) (g : gres (go_console_VgaTextConsole * unit)) : Prop :=
  match r with OutOfFuel _ => True | _ => g = vres c phys r end.

Theorem scroll_is_translation c phys m dir lines fuel :
  (Pos.to_nat fuel32 <= fuel)%nat ->
  claim c phys (vga_scroll c m dir lines) (go_console_VgaTextConsole_Scroll fuel (to_gv c phys m) dir lines).
Proof.
  intros Hfuel.
  cbv delta [go_console_VgaTextConsole_Scroll vga_scroll]. cbv beta zeta. vsimp.
  destruct ((lines =? 0) || (vh c <? lines)); [reflexivity|].
  change (gw 32 (lines * vw c)) with (mul32 lines (vw c)).
  change (gw 32 (gsub 32 (vh c) lines * vw c)) with (mul32 (sub32 (vh c) lines) (vw c)).
  change (gsub 32 (gw 32 (vh c * vw c)) 1) with (sub32 (mul32 (vh c) (vw c)) 1).
  set (offset := mul32 lines (vw c)).
  set (Rel := fun (s : fbuf * N) (t : go_console_VgaTextConsole * N) => t = (to_gv c phys (fst s), snd s)).
  destruct (dir =? console_ScrollDirUp).
  - match goal with |- context [gloop fuel ?f0 _] => set (gstep := f0) end.
    set (bound := mul32 (sub32 (vh c) lines) (vw c)).
    pose proof (whileP_sim (vga_scroll_up_step bound offset) gstep Rel) as Sim.
    assert (Hs : step_sim (vga_scroll_up_step bound offset) gstep Rel).
    { intros [m0 i] t ->. cbn [fst snd]. unfold vga_scroll_up_step, copy_fwd_step, copy_chk, gstep. vsimp.
      change (gw 32 (gsub 32 (vh c) lines * vw c)) with bound.
      destruct (i <? bound); [|eexists; split; reflexivity].
      change (gw 32 (i + offset)) with (add32 i offset).
      rewrite gidx_fb. destruct (load_chk m0 (add32 i offset)) as [v|]; [|reflexivity].
      rewrite gset_fb. destruct (store_chk m0 i v) as [m1|]; [|reflexivity].
      cbn [option_map]. rewrite fold_fb. eexists; split; reflexivity. }
    specialize (Sim Hs (m, 0) (to_gv c phys m, 0) fuel eq_refl Hfuel).
    revert Sim. destruct (whileP (vga_scroll_up_step bound offset) fuel32 (m, 0)) as [s'|s'|s'|s']; intros Sim; cbn [res_of_loop claim]; try exact I.
    + destruct Sim as (t' & E & HR). unfold Rel in HR. subst t'. rewrite E. reflexivity.
    + rewrite Sim. reflexivity.
  - destruct (dir =? console_ScrollDirDown); [|reflexivity].
    match goal with |- context [gloop fuel ?f0 _] => set (gstep := f0) end.
    pose proof (whileP_sim (vga_scroll_down_step offset offset) gstep Rel) as Sim.
    assert (Hs : step_sim (vga_scroll_down_step offset offset) gstep Rel).
    { intros [m0 i] t ->. cbn [fst snd]. unfold vga_scroll_down_step, copy_chk, gstep. vsimp.
      change (gw 32 (lines * vw c)) with offset.
      destruct (offset <=? i); [|eexists; split; reflexivity].
      change (gsub 32 i offset) with (sub32 i offset).
      rewrite gidx_fb. destruct (load_chk m0 (sub32 i offset)) as [v|]; [|reflexivity].
      rewrite gset_fb. destruct (store_chk m0 i v) as [m1|]; [|reflexivity].
      cbn [option_map]. rewrite fold_fb. eexists; split; reflexivity. }
    specialize (Sim Hs (m, sub32 (mul32 (vh c) (vw c)) 1) (to_gv c phys m, sub32 (mul32 (vh c) (vw c)) 1) fuel eq_refl Hfuel).
    revert Sim. destruct (whileP (vga_scroll_down_step offset offset) fuel32 _) as [s'|s'|s'|s']; intros Sim; cbn [res_of_loop claim]; try exact I.
    + destruct Sim as (t' & E & HR). unfold Rel in HR. subst t'. rewrite E. reflexivity.
    + rewrite Sim. reflexivity.
Qed.

(** ---- Fill ---- *)
Theorem fill_is_translation c phys m x y width height fg bg fuel :
  fg < 256 -> bg < 256 -> (Pos.to_nat fuel32 <= fuel)%nat ->
  claim c phys (vga_fill c m x y width height fg bg)
        (go_console_VgaTextConsole_Fill fuel (to_gv c phys m) x y width height fg bg).
Proof.
  intros Hfg Hbg Hfuel.
  cbv delta [go_console_VgaTextConsole_Fill vga_fill]. cbv beta zeta. vsimp.
  rewrite (w16_small bg) by (unfold two16; lia). rewrite (w16_small fg) by (unfold two16; lia).
  change (N.lor (gw 16 (N.shiftl (N.lor (gw 16 (N.shiftl bg 4)) fg) 8)) vga_clearChar) with (N.lor (attr16 bg fg) vga_clearChar).
  set (clr := N.lor (attr16 bg fg) vga_clearChar).
  change (gw 32 1) with 1.
  change (if x =? 0 then 1 else if vw c <=? x then vw c else x) with (clamp_org x (vw c)).
  set (x' := clamp_org x (vw c)).
  change (if y =? 0 then 1 else if vh c <=? y then vh c else y) with (clamp_org y (vh c)).
  set (y' := clamp_org y (vh c)).
  change (gw 32 (gsub 32 (vw c) x' + 1)) with (add32 (sub32 (vw c) x') 1).
  change (if add32 (sub32 (vw c) x') 1 <? width then add32 (sub32 (vw c) x') 1 else width) with (clip_ext width x' (vw c)).
  set (width' := clip_ext width x' (vw c)).
  change (gw 32 (gsub 32 (vh c) y' + 1)) with (add32 (sub32 (vh c) y') 1).
  change (if add32 (sub32 (vh c) y') 1 <? height then add32 (sub32 (vh c) y') 1 else height) with (clip_ext height y' (vh c)).
  set (height' := clip_ext height y' (vh c)).
  change (gw 32 (gw 32 (gsub 32 y' 1 * vw c) + gsub 32 x' 1)) with (add32 (mul32 (sub32 y' 1) (vw c)) (sub32 x' 1)).
  set (row := add32 (mul32 (sub32 y' 1) (vw c)) (sub32 x' 1)).
  match goal with |- context [gloop fuel ?f0 _] => set (gstepO := f0) end.
  set (RelO := fun (s : fbuf * N * N) (t : go_console_VgaTextConsole * N * N * N) =>
                 exists col, t = (to_gv c phys (fst (fst s)), col, snd (fst s), snd s)).
  assert (HsO : step_sim (fill_row_step (vw c) width' 1 [clr]) gstepO RelO).
  { intros [[m0 rows] rowoff] t (col & ->). cbn [fst snd]. unfold fill_row_step, gstepO. cbv beta iota zeta. vsimp.
    destruct (0 <? rows); [|eexists; split; [reflexivity|exists col; reflexivity]].
    change (gw 32 (rowoff + width')) with (add32 rowoff width').
    match goal with |- context [gloop fuel ?f0 _] => set (gstepI := f0) end.
    set (RelI := fun (s : fbuf * N) (t : go_console_VgaTextConsole * N) => t = (to_gv c phys (fst s), snd s)).
    pose proof (whileP_sim (fill_px_step (add32 rowoff width') 1 [clr]) gstepI RelI) as Sim.
    assert (HsI : step_sim (fill_px_step (add32 rowoff width') 1 [clr]) gstepI RelI).
    { intros [m1 off] t' ->. cbn [fst snd]. unfold fill_px_step, store_seq, gstepI. vsimp.
      destruct (off <? add32 rowoff width'); [|eexists; split; reflexivity].
      cbn [N.eqb]. rewrite gset_fb. destruct (store_chk m1 off clr) as [m2|]; [|reflexivity].
      cbn [option_map]. rewrite fold_fb. change (gw 32 (off + 1)) with (add32 off 1). eexists; split; reflexivity. }
    specialize (Sim HsI (m0, rowoff) (to_gv c phys m0, rowoff) fuel eq_refl Hfuel).
    revert Sim. destruct (whileP (fill_px_step (add32 rowoff width') 1 [clr]) fuel32 (m0, rowoff)) as [[m' o']|[m' o']|[m' o']|[m' o']];
      intros Sim; try exact I.
    - destruct Sim as (t' & E & HR). unfold RelI in HR. subst t'. rewrite E. cbv beta iota. vsimp.
      change (gsub 32 rows 1) with (sub32 rows 1). change (gw 32 (rowoff + vw c)) with (add32 rowoff (vw c)).
      eexists; split; [reflexivity|]. exists o'. reflexivity.
    - rewrite Sim. reflexivity. }
  pose proof (whileP_sim (fill_row_step (vw c) width' 1 [clr]) gstepO RelO HsO (m, height', row) (to_gv c phys m, 0, height', row) fuel
                (ex_intro _ 0 eq_refl) Hfuel) as Sim.
  revert Sim. destruct (whileP (fill_row_step (vw c) width' 1 [clr]) fuel32 (m, height', row)) as [s'|s'|s'|s'];
    intros Sim; cbn [res_of_loop claim]; try exact I.
  - destruct Sim as (t' & E & (col & HR)). subst t'. rewrite E. reflexivity.
  - rewrite Sim. reflexivity.
Qed.

(** ---- with the geometry of C19 ([vga_wf]: W, H >= 1, W*H < 2^32 cells): the runs end, so the translation,
    with fuel >= fuel32, returns the model's framebuffer ---- *)

Corollary fill_trans_ok c phys m x y width height fg bg fuel :
  vga_wf c m -> fg < 256 -> bg < 256 -> (Pos.to_nat fuel32 <= fuel)%nat ->
  exists m', vga_fill c m x y width height fg bg = Ok m' /\
             go_console_VgaTextConsole_Fill fuel (to_gv c phys m) x y width height fg bg = GOk (to_gv c phys m', tt).
Proof.
  intros W Hfg Hbg Hfuel. destruct (vga_fill_spec c m x y width height fg bg W) as (m' & E & _).
  exists m'. split; [exact E|]. pose proof (fill_is_translation c phys m x y width height fg bg fuel Hfg Hbg Hfuel) as T.
  rewrite E in T. exact T.
Qed.

Corollary scroll_trans_ok c phys m dir lines fuel :
  vga_wf c m -> lines < two32 -> (Pos.to_nat fuel32 <= fuel)%nat ->
  exists m', vga_scroll c m dir lines = Ok m' /\
             go_console_VgaTextConsole_Scroll fuel (to_gv c phys m) dir lines = GOk (to_gv c phys m', tt).
Proof.
  intros W Hl Hfuel. destruct (vga_scroll_spec c m dir lines W Hl) as (m' & E & _).
  exists m'. split; [exact E|]. pose proof (scroll_is_translation c phys m dir lines fuel Hfuel) as T.
  rewrite E in T. exact T.
Qed.

(** the two claims with [claim] unfolded (the form stated in Props/C19_vga_trans.v) *)
Theorem fill_is_translation_explicit c phys m x y width height fg bg fuel :
  fg < 256 -> bg < 256 -> (Pos.to_nat fuel32 <= fuel)%nat ->
  match vga_fill c m x y width height fg bg with
  | Ok m' => go_console_VgaTextConsole_Fill fuel (to_gv c phys m) x y width height fg bg = GOk (to_gv c phys m', tt)
  | Panic _ => go_console_VgaTextConsole_Fill fuel (to_gv c phys m) x y width height fg bg = GPanic
  | OutOfFuel _ => True
  end.
Proof.
  intros H1 H2 H3. pose proof (fill_is_translation c phys m x y width height fg bg fuel H1 H2 H3) as T.
  destruct (vga_fill c m x y width height fg bg); exact T.
Qed.

Theorem scroll_is_translation_explicit c phys m dir lines fuel :
  (Pos.to_nat fuel32 <= fuel)%nat ->
  match vga_scroll c m dir lines with
  | Ok m' => go_console_VgaTextConsole_Scroll fuel (to_gv c phys m) dir lines = GOk (to_gv c phys m', tt)
  | Panic _ => go_console_VgaTextConsole_Scroll fuel (to_gv c phys m) dir lines = GPanic
  | OutOfFuel _ => True
  end.
Proof.
  intros H. pose proof (scroll_is_translation c phys m dir lines fuel H) as T.
  destruct (vga_scroll c m dir lines); exact T.
Qed.

Theorem trans_no_panic c phys m fuel :
  vga_wf c m -> (Pos.to_nat fuel32 <= fuel)%nat ->
  (forall x y width height fg bg, fg < 256 -> bg < 256 ->
     exists m', vga_fill c m x y width height fg bg = Ok m' /\
       go_console_VgaTextConsole_Fill fuel (to_gv c phys m) x y width height fg bg = GOk (to_gv c phys m', tt)) /\
  (forall dir lines, lines < two32 ->
     exists m', vga_scroll c m dir lines = Ok m' /\
       go_console_VgaTextConsole_Scroll fuel (to_gv c phys m) dir lines = GOk (to_gv c phys m', tt)).
Proof.
  intros W F. split.
  - intros x y width height fg bg H1 H2. exact (fill_trans_ok c phys m x y width height fg bg fuel W H1 H2 F).
  - intros dir lines H. exact (scroll_trans_ok c phys m dir lines fuel W H F).
Qed.
