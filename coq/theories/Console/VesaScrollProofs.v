(** Scroll of the framebuffer console equals the reference painter (Console/VesaSpec.v). *)
From Coq Require Import NArith ZArith PArith Arith Bool List Lia.
From Coq Require Import ZifyBool ZifyN ZifyNat.
From FF Require Import Lib.Word Gen.Consts_device_video_console.
From FF Require Import Console.Mem Console.MemProofs Console.Loop Console.LoopProofs Console.Ops Console.OpsProofs.
From FF Require Import Console.Grid Console.Vga Console.VgaProofs Console.Vesa Console.VesaSpec Console.VesaProofs Console.VesaFillProofs.
Import ListNotations.
Local Open Scope N_scope.

Lemma add32_sub32 a b : a < two32 -> b < two32 -> add32 (sub32 a b) b = a.
Proof.
  intros Ha Hb. unfold add32, sub32. rewrite (w32_small b) by exact Hb. unfold w32.
  rewrite N.add_mod_idemp_l by discriminate.
  replace (a + two32 - b + b) with (a + 1 * two32) by lia.
  rewrite N.mod_add by discriminate. now apply N.mod_small.
Qed.

Lemma fb_offset_0 c y : fb_offset c 0 y = mul32 (add32 y (offsetY c)) (pitch c).
Proof.
  unfold fb_offset, add32, mul32, w32. rewrite N.mul_0_l, N.mod_0_l, N.add_0_r by discriminate.
  apply N.mod_mod. discriminate.
Qed.

(** the rows [rows] of [mj] hold the first [rb] bytes of the rows at distance [src] in [m]; [m2] is [mj] with
    the first [rb] bytes of row [Yr] copied from row [src Yr], which [mj] has left as it is in [m] *)
Lemma copy_add_row P rb (src : N -> N) (rows : N -> bool) Yr (f : N -> N) (m mj m2 : fbuf) :
  rb <= P -> rows (src Yr) = false ->
  (forall i, Yr * P <= i < Yr * P + rb -> f i = src Yr * P + (i - Yr * P)) ->
  (forall Y b, b < P -> load mj (Y * P + b) =
     if rows Y && (b <? rb) then load m (src Y * P + b) else load m (Y * P + b)) ->
  (forall i, load m2 i = if (Yr * P <=? i) && (i <? Yr * P + rb) then load mj (f i) else load mj i) ->
  forall Y b, b < P -> load m2 (Y * P + b) =
     if ((Y =? Yr) || rows Y) && (b <? rb) then load m (src Y * P + b) else load m (Y * P + b).
Proof.
  intros Hrb Hsrc Hf Hj H2 Y b Hb.
  pose proof (rect_add_row P 0 rb (fun _ => true) (fun Y d => load m (src Y * P + d)) rows Yr m mj m2 Hrb) as A.
  rewrite A; auto.
  - rewrite N.sub_0_r, N.add_0_l, !andb_true_r. replace (0 <=? b) with true by lia. now rewrite andb_true_r.
  - intros Y' b' Hb'. rewrite Hj by exact Hb'.
    rewrite N.sub_0_r, N.add_0_l, !andb_true_r. replace (0 <=? b') with true by lia. now rewrite andb_true_r.
  - intros i. rewrite H2, !N.add_0_r, andb_true_r.
    destruct ((Yr * P <=? i) && (i <? Yr * P + rb)) eqn:C; [|reflexivity].
    rewrite Hf by lia. rewrite Hj, Hsrc by lia. reflexivity.
Qed.

(** rows [Ys, Ys+R) receive the first [rb] bytes of the rows [D] further down, top to bottom *)
Lemma scroll_up_rows c m Ys R D rb :
  1 <= pitch c -> rb <= pitch c -> 1 <= D ->
  (Ys + R + D) * pitch c <= flen m -> flen m < two32 ->
  exists m', whileP (scroll_up_row_step c ((Ys + R) * pitch c) rb (D * pitch c)) fuel32 (m, Ys * pitch c)
             = Done (m', (Ys + R) * pitch c) /\
    flen m' = flen m /\
    forall Y b, b < pitch c ->
      load m' (Y * pitch c + b) =
        if (Ys <=? Y) && (Y <? Ys + R) && (b <? rb) then load m ((Y + D) * pitch c + b) else load m (Y * pitch c + b).
Proof.
  intros HP Hrb HD Hfit Hlen. set (P := pitch c) in *.
  pose (Inv := fun (J : N) (st : fbuf * N) =>
    snd st = (Ys + J) * P /\ flen (fst st) = flen m /\
    forall Y b, b < P ->
      load (fst st) (Y * P + b) =
        if (Ys <=? Y) && (Y <? Ys + J) && (b <? rb) then load m ((Y + D) * P + b) else load m (Y * P + b)).
  assert (HR: R * 1 <= R * P) by (apply N.mul_le_mono_l; lia).
  assert (HR': R * P <= (Ys + R + D) * P) by (apply N.mul_le_mono_r; lia).
  destruct (whileP_inv (scroll_up_row_step c ((Ys + R) * P) rb (D * P)) Inv R (m, Ys * P)) as [[m' ro'] [E [I1 [I2 I3]]]].
  - lia.
  - unfold Inv. cbn [fst snd]. repeat split; try lia. intros Y b Hb.
    replace ((Ys <=? Y) && (Y <? Ys + 0)) with false by lia. reflexivity.
  - intros J [mj ro] Hj' [I1 [I2 I3]]. cbn [fst snd] in *. subst ro.
    unfold scroll_up_row_step. fold P.
    assert (Hmono: (Ys + J + 1) * P <= (Ys + R) * P) by (apply N.mul_le_mono_r; lia).
    assert (Hmono2: (Ys + R) * P + D * P <= flen m) by (rewrite <- N.mul_add_distr_r; exact Hfit).
    replace ((Ys + J) * P <? (Ys + R) * P) with true by lia.
    assert (HDP: 1 * P <= D * P) by (apply N.mul_le_mono_r; lia).
    destruct (copy_span (fun i => add32 i (D * P)) rb mj ((Ys + J) * P)) as [m2 [S1 [S2 S3]]]; try lia.
    { intros i Hi. rewrite add32_small by lia. lia. }
    rewrite S1. eexists. split; [reflexivity|]. unfold Inv. cbn [fst snd].
    rewrite add32_small by lia. repeat split; try lia.
    intros Y b Hb.
    replace ((Ys <=? Y) && (Y <? Ys + (J + 1))) with ((Y =? Ys + J) || (Ys <=? Y) && (Y <? Ys + J)) by lia.
    revert Y b Hb.
    apply (copy_add_row P rb (fun Y => Y + D) (fun Y => (Ys <=? Y) && (Y <? Ys + J)) (Ys + J)
                        (fun i => add32 i (D * P)) m mj m2); auto; [lia|].
    intros i Hi. rewrite add32_small by lia. lia.
  - intros [mj ro] [I1 _]. cbn [fst snd] in *. unfold scroll_up_row_step. subst ro.
    fold P. rewrite N.ltb_irrefl. reflexivity.
  - cbn [fst snd] in *. subst ro'. exists m'. rewrite E. repeat split; auto.
Qed.

(** rows [Ys, Ys+R) receive the first [rb] bytes of the rows [D] further up, bottom to top *)
Lemma scroll_down_rows c m Ys R D rb :
  1 <= pitch c -> rb <= pitch c -> 1 <= D -> D <= Ys ->
  (Ys + R) * pitch c <= flen m -> flen m < two32 ->
  exists m', whileP (scroll_down_row_step c (Ys * pitch c) rb (D * pitch c)) fuel32 (m, (Ys + R) * pitch c)
             = Done (m', Ys * pitch c) /\
    flen m' = flen m /\
    forall Y b, b < pitch c ->
      load m' (Y * pitch c + b) =
        if (Ys <=? Y) && (Y <? Ys + R) && (b <? rb) then load m ((Y - D) * pitch c + b) else load m (Y * pitch c + b).
Proof.
  intros HP Hrb HD HDY Hfit Hlen. set (P := pitch c) in *.
  pose (Inv := fun (J : N) (st : fbuf * N) =>
    snd st = (Ys + R - J) * P /\ flen (fst st) = flen m /\
    forall Y b, b < P ->
      load (fst st) (Y * P + b) =
        if (Ys + R - J <=? Y) && (Y <? Ys + R) && (b <? rb) then load m ((Y - D) * P + b) else load m (Y * P + b)).
  assert (HR: R * 1 <= R * P) by (apply N.mul_le_mono_l; lia).
  assert (HR': R * P <= (Ys + R) * P) by (apply N.mul_le_mono_r; lia).
  destruct (whileP_inv (scroll_down_row_step c (Ys * P) rb (D * P)) Inv R (m, (Ys + R) * P)) as [[m' ro'] [E [I1 [I2 I3]]]].
  - lia.
  - unfold Inv. cbn [fst snd]. repeat split; try (f_equal; lia). intros Y b Hb.
    replace ((Ys + R - 0 <=? Y) && (Y <? Ys + R)) with false by lia. reflexivity.
  - intros J [mj ro] Hj' [I1 [I2 I3]]. cbn [fst snd] in *. subst ro.
    set (T := Ys + R - J) in *.
    assert (HT: Ys + 1 <= T <= Ys + R) by (subst T; lia).
    unfold scroll_down_row_step. fold P.
    assert (Hm1: (Ys + 1) * P <= T * P) by (apply N.mul_le_mono_r; lia).
    assert (Hm2: T * P <= (Ys + R) * P) by (apply N.mul_le_mono_r; lia).
    assert (Hm3: (T - 1) * P + P = T * P) by (replace T with (T - 1 + 1) at 2 by lia; lia).
    assert (HDP: 1 * P <= D * P) by (apply N.mul_le_mono_r; lia).
    assert (HDT: D * P <= (T - 1) * P) by (apply N.mul_le_mono_r; lia).
    assert (HDm: (T - 1 - D) * P + D * P = (T - 1) * P) by (rewrite <- N.mul_add_distr_r; f_equal; lia).
    replace (Ys * P <? T * P) with true by lia.
    rewrite sub32_small by lia. replace (T * P - P) with ((T - 1) * P) by lia.
    destruct (copy_span (fun i => sub32 i (D * P)) rb mj ((T - 1) * P)) as [m2 [S1 [S2 S3]]]; try lia.
    { intros i Hi. rewrite sub32_small by lia. lia. }
    rewrite S1. eexists. split; [reflexivity|]. unfold Inv. cbn [fst snd].
    replace (Ys + R - (J + 1)) with (T - 1) by lia.
    repeat split; try lia.
    intros Y b Hb.
    replace ((T - 1 <=? Y) && (Y <? Ys + R)) with ((Y =? T - 1) || (T <=? Y) && (Y <? Ys + R)) by lia.
    revert Y b Hb.
    apply (copy_add_row P rb (fun Y => Y - D) (fun Y => (T <=? Y) && (Y <? Ys + R)) (T - 1)
                        (fun i => sub32 i (D * P)) m mj m2); auto; [lia|].
    intros i Hi. rewrite sub32_small by lia. lia.
  - intros [mj ro] [I1 _]. cbn [fst snd] in *. unfold scroll_down_row_step. subst ro.
    fold P. replace (Ys + R - R) with Ys by lia. rewrite N.ltb_irrefl. reflexivity.
  - cbn [fst snd] in *. replace (Ys + R - R) with Ys in * by lia.
    subst ro'. exists m'. rewrite E. repeat split; auto.
Qed.

Lemma vesa_scroll_spec c f d m dir lines :
  vesa_wf c f d m -> lines < two32 ->
  exists m', vesa_scroll c m dir lines = Ok m' /\ flen m' = flen m /\
    forall i, load m' i =
      match dir_of dir with
      | Some sd => if scroll_ok (vesa_dims c) lines then scroll_ref c f m sd lines i else load m i
      | None => load m i
      end.
Proof.
  intros W Hl.
  pose proof (geometry_rows c f d m W) as G2. pose proof (geometry_pitch c f d m W) as G3.
  pose proof (geometry_dims32 c f d m W) as [G5 G6].
  pose proof (wf_gh _ _ _ _ W) as Hgh. pose proof (wf_pitch _ _ _ _ W) as Hpitch.
  pose proof (wf_size _ _ _ _ W) as Hsize. pose proof (wf_flen _ _ _ _ W) as Hflen.
  pose proof (wf_offsetY _ _ _ _ W) as HoY.
  unfold vesa_scroll, scroll_ok. cbn [vesa_dims gh]. rewrite (wf_font _ _ _ _ W).
  destruct ((lines =? 0) || (hchars c <? lines)) eqn:G.
  { exists m. repeat split; auto. intros i.
    replace ((1 <=? lines) && (lines <=? hchars c)) with false by (symmetry; clear - G; lia).
    destruct (dir_of dir); auto. }
  assert (Hr: 1 <= lines <= hchars c) by (clear - G; lia).
  replace ((1 <=? lines) && (lines <=? hchars c)) with true by (symmetry; clear - Hr; lia).
  cbv zeta.
  assert (HL: lines * f_gh f <= hchars c * f_gh f) by (apply N.mul_le_mono_r; lia).
  assert (HL1: 1 * 1 <= lines * f_gh f) by (apply N.mul_le_mono; lia).
  set (L := lines * f_gh f) in *.
  rewrite (mul32_small lines) by (fold L; lia). fold L.
  rewrite !fb_offset_0.
  assert (HLP: L * pitch c <= ph c * pitch c) by (apply N.mul_le_mono_r; lia).
  rewrite (add32_sub32 L) by lia. rewrite (mul32_small L) by lia.
  rewrite (mul32_small (pw c)) by lia.
  set (P := pitch c) in *. set (s := bytespp c) in *.
  assert (HoP: offsetY c * P <= ph c * P) by (apply N.mul_le_mono_r; lia).
  unfold dir_of. destruct (dir =? console_ScrollDirUp) eqn:Du.
  - (* up *)
    rewrite (sub32_small (ph c)) by lia. rewrite (add32_sub32 (ph c - L)) by lia.
    rewrite (add32_small 0) by lia. rewrite N.add_0_l.
    assert (HsP: (ph c - L) * P <= ph c * P) by (apply N.mul_le_mono_r; lia).
    rewrite !mul32_small by lia.
    replace (ph c - L) with (offsetY c + (ph c - L - offsetY c)) by lia.
    destruct (scroll_up_rows c m (offsetY c) (ph c - L - offsetY c) L (pw c * s)) as [m' [E [E1 E2]]]; fold P; try lia.
    { replace (offsetY c + (ph c - L - offsetY c) + L) with (ph c) by lia. lia. }
    fold P in E, E2. rewrite E. exists m'. repeat split; auto.
    intros i. destruct (index_coord c f d m i W) as [Hi Hb]. fold P in Hi, Hb.
    unfold scroll_ref. cbv zeta. fold P s L.
    set (Y := i / P) in *. set (b := i mod P) in *.
    rewrite Hi at 1. rewrite E2 by assumption. rewrite <- Hi.
    destruct (N.ltb_spec b (pw c * s)); rewrite ?andb_false_r, ?andb_true_r; auto.
    replace (Y <? offsetY c + (ph c - L - offsetY c)) with (Y + L <? ph c); auto.
    apply Bool.eq_iff_eq_true. rewrite !N.ltb_lt. clear - G2 HL. lia.
  - destruct (dir =? console_ScrollDirDown) eqn:Dd.
    + (* down *)
      rewrite (add32_sub32 (ph c)) by lia. rewrite (add32_small L) by lia.
      assert (HsP2: (L + offsetY c) * P <= ph c * P) by (apply N.mul_le_mono_r; lia).
      rewrite !mul32_small by lia.
      replace (ph c * P) with ((L + offsetY c + (ph c - offsetY c - L)) * P) by (f_equal; lia).
      destruct (scroll_down_rows c m (L + offsetY c) (ph c - offsetY c - L) L (pw c * s)) as [m' [E [E1 E2]]]; fold P; try lia.
      fold P in E, E2. rewrite E. exists m'. repeat split; auto.
      intros i. destruct (index_coord c f d m i W) as [Hi Hb]. fold P in Hi, Hb.
      unfold scroll_ref. cbv zeta. fold P s L.
      set (Y := i / P) in *. set (b := i mod P) in *.
      rewrite Hi at 1. rewrite E2 by assumption. rewrite <- Hi.
      destruct (N.ltb_spec b (pw c * s)); rewrite ?andb_false_r, ?andb_true_r; auto.
      replace (L + offsetY c <=? Y) with (offsetY c + L <=? Y) by (f_equal; lia).
      replace (Y <? L + offsetY c + (ph c - offsetY c - L)) with (Y <? ph c); auto.
      f_equal. clear - G2 HL. lia.
    + exists m. repeat split; auto.
Qed.
