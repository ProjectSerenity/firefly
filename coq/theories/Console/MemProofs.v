(** Facts about the framebuffer memory; everything else relies only on these. *)
From Coq Require Import NArith PArith Bool List Lia FMapPositive.
From FF Require Import Lib.Std Console.Mem.
Local Open Scope N_scope.

Lemma load_store_eq m i v : load (store m i v) i = v.
Proof. unfold load, store. cbn. now rewrite PositiveMap.gss. Qed.

Lemma load_store_neq m i j v : i <> j -> load (store m i v) j = load m j.
Proof.
  intros H. unfold load, store. cbn. rewrite PositiveMap.gso; auto.
  intros E. apply succ_pos_inj in E. congruence.
Qed.

Lemma load_store m i j v : load (store m i v) j = if j =? i then v else load m j.
Proof.
  destruct (N.eqb_spec j i) as [->|H]. apply load_store_eq. apply load_store_neq. congruence.
Qed.

Lemma flen_store m i v : flen (store m i v) = flen m.
Proof. reflexivity. Qed.

Lemma store_chk_some m i v : i < flen m -> store_chk m i v = Some (store m i v).
Proof. intros H. unfold store_chk. apply N.ltb_lt in H. now rewrite H. Qed.

Lemma store_chk_none m i v : flen m <= i -> store_chk m i v = None.
Proof. intros H. unfold store_chk. apply N.ltb_ge in H. now rewrite H. Qed.

Lemma load_chk_some m i : i < flen m -> load_chk m i = Some (load m i).
Proof. intros H. unfold load_chk. apply N.ltb_lt in H. now rewrite H. Qed.

Lemma load_fresh len base i : load (fresh len base) i = base i.
Proof. unfold load, fresh. cbn. now rewrite PositiveMap.gempty. Qed.
