(** The framebuffer console refines the cell-level semantics of Console/Grid.v: the content of a
    cell is the colour bytes of its pixels. *)
From Coq Require Import NArith ZArith PArith Arith Bool List Lia.
From Coq Require Import ZifyBool ZifyN ZifyNat.
From FF Require Import Lib.Word Gen.Consts_device_video_console.
From FF Require Import Console.Mem Console.MemProofs Console.Loop Console.LoopProofs Console.Ops Console.OpsProofs.
From FF Require Import Console.Grid Console.Vga Console.VgaProofs Console.Vesa Console.VesaSpec Console.VesaProofs.
From FF Require Import Console.VesaFillProofs Console.VesaScrollProofs Console.VesaWriteProofs Console.C19Lemmas.
Import ListNotations.
Local Open Scope N_scope.

(** content of a cell: byte [k] of pixel (column [q], row [r]) of the cell *)
Definition cell_pix : Type := N -> N -> N -> N.

(** framebuffer index of that byte for cell (cx, cy), 1-based *)
Definition pix_index (c : vesa) (f : font) (cx cy r q k : N) : N :=
  (offsetY c + (cy - 1) * f_gh f + r) * pitch c + ((cx - 1) * f_gw f + q) * bytespp c + k.

Definition vesa_grid (c : vesa) (f : font) (m : fbuf) : grid cell_pix :=
  mkGrid (wchars c) (hchars c) (fun cx cy r q k => load m (pix_index c f cx cy r q k)).

(** two cells show the same thing: equal colour bytes in every pixel of the cell *)
Definition cell_rel (f : font) (d : depth) (a b : cell_pix) : Prop :=
  forall r q k, r < f_gh f -> q < f_gw f -> k < ncomp d -> a r q k = b r q k.

(** the picture of character [ch] in colours fgb / bgb, and of a blank cell *)
Definition glyph_cell (f : font) (ch : N) (fgb bgb : list N) : cell_pix :=
  fun r q k => byte_at (if glyph_bit f ch r q then fgb else bgb) k.
Definition solid_cell (bgb : list N) : cell_pix := fun _ _ k => byte_at bgb k.

Lemma vesa_wf_keep c f d m m' : vesa_wf c f d m -> flen m' = flen m -> vesa_wf c f d m'.
Proof. intros W E. destruct W. constructor; auto. now rewrite E. Qed.

(** where the bytes of a cell lie *)
Lemma pix_place c f d m cx cy r q k :
  vesa_wf c f d m -> 1 <= cx <= wchars c -> 1 <= cy <= hchars c ->
  r < f_gh f -> q < f_gw f -> k < bytespp c ->
  place_of c (pix_index c f cx cy r q k) = PixelByte ((cx - 1) * f_gw f + q) (offsetY c + (cy - 1) * f_gh f + r) k /\
  cell_of c f ((cx - 1) * f_gw f + q) (offsetY c + (cy - 1) * f_gh f + r) = Some (cx, cy, q, r).
Proof.
  intros W Hcx Hcy Hr Hq Hk.
  pose proof (geometry_cols c f d m W) as G1.
  pose proof (wf_pitch _ _ _ _ W) as Hpitch.
  assert (HX: (cx - 1) * f_gw f + f_gw f <= wchars c * f_gw f).
  { replace ((cx - 1) * f_gw f + f_gw f) with ((cx - 1 + 1) * f_gw f) by lia. apply N.mul_le_mono_r. lia. }
  assert (HY: (cy - 1) * f_gh f + f_gh f <= hchars c * f_gh f).
  { replace ((cy - 1) * f_gh f + f_gh f) with ((cy - 1 + 1) * f_gh f) by lia. apply N.mul_le_mono_r. lia. }
  destruct (coord_index (f_gw f) (cx - 1) q Hq) as [E1 E2].
  destruct (coord_index (f_gh f) (cy - 1) r Hr) as [E3 E4].
  remember ((cx - 1) * f_gw f) as A eqn:HA0. remember ((cy - 1) * f_gh f) as B eqn:HB0.
  remember (wchars c * f_gw f) as WG eqn:HWG. remember (hchars c * f_gh f) as HG eqn:HHG.
  set (X := A + q) in *. set (Y := offsetY c + B + r) in *.
  assert (HXw: X < WG) by (subst X; clear - HX Hq; lia).
  assert (HX1: (X + 1) * bytespp c <= pw c * bytespp c) by (apply N.mul_le_mono_r; clear - HXw G1; lia).
  assert (Hb: X * bytespp c + k < pw c * bytespp c) by (clear - HX1 Hk; lia).
  assert (HbP: X * bytespp c + k < pitch c) by (clear - Hb Hpitch; lia).
  unfold pix_index. rewrite <- HA0, <- HB0. fold X Y. rewrite <- N.add_assoc.
  destruct (coord_index (pitch c) Y (X * bytespp c + k) HbP) as [C1 C2].
  destruct (coord_index (bytespp c) X k Hk) as [D1 D2].
  split.
  - unfold place_of. rewrite C1, C2, D1, D2.
    replace (X * bytespp c + k <? pw c * bytespp c) with true by (symmetry; apply N.ltb_lt; exact Hb). reflexivity.
  - unfold cell_of. rewrite <- HWG, <- HHG.
    replace (X <? WG) with true by (symmetry; apply N.ltb_lt; exact HXw).
    replace (offsetY c <=? Y) with true by (symmetry; apply N.leb_le; subst Y; clear; lia).
    replace (Y <? offsetY c + HG) with true by (symmetry; apply N.ltb_lt; subst Y; clear - HY Hr; lia).
    cbn [andb].
    replace (Y - offsetY c) with (B + r) by (subst Y; clear; lia).
    rewrite E1, E2, E3, E4.
    replace (cx - 1 + 1) with cx by (clear - Hcx; lia). replace (cy - 1 + 1) with cy by (clear - Hcy; lia).
    reflexivity.
Qed.

Lemma vesa_write_refines c f d m ch fg bg x y :
  vesa_wf c f d m -> ch < 256 -> fg < 256 -> bg < 256 -> x < two32 -> y < two32 ->
  exists m' fgb bgb, pixel_bytes c d fg = Some fgb /\ pixel_bytes c d bg = Some bgb /\
    vesa_write c m ch fg bg x y = Ok m' /\ vesa_wf c f d m' /\
    grid_equiv (cell_rel f d) (vesa_grid c f m') (g_write (vesa_grid c f m) x y (glyph_cell f ch fgb bgb)).
Proof.
  intros W H1 H2 H3 H4 H5.
  destruct (vesa_write_spec c f d m ch fg bg x y W H1 H2 H3 H4 H5) as [m' [fgb [bgb [P1 [P2 [E [E1 E2]]]]]]].
  exists m', fgb, bgb.
  split; [exact P1|]. split; [exact P2|]. split; [exact E|]. split; [eapply vesa_wf_keep; eauto|].
  destruct (g_write_dims (vesa_grid c f m) x y (glyph_cell f ch fgb bgb)) as [D1 D2].
  unfold grid_equiv. rewrite D1, D2. repeat split; auto.
  intros cx cy G. apply in_grid_spec in G. cbn [vesa_grid gw gh] in G.
  intros r q k Hr Hq Hk. cbn [vesa_grid gcell]. rewrite E2.
  pose proof (ncomp_le c f d m W) as Hnc.
  destruct (pix_place c f d m cx cy r q k W ltac:(lia) ltac:(lia) Hr Hq ltac:(lia)) as [PL CE].
  replace (in_grid (vesa_dims c) x y) with (in_grid (vesa_grid c f m) x y) by reflexivity.
  unfold g_write. destruct (in_grid (vesa_grid c f m) x y) eqn:Gx; cbn [gcell vesa_grid]; auto.
  unfold write_ref. rewrite PL, CE.
  replace (k <? ncomp d) with true by (symmetry; apply N.ltb_lt; exact Hk). rewrite andb_true_r.
  destruct ((cx =? x) && (cy =? y)); reflexivity.
Qed.

Lemma vesa_fill_refines c f d m x y width height fg bg :
  vesa_wf c f d m -> bg < 256 ->
  exists m' bgb, pixel_bytes c d bg = Some bgb /\
    vesa_fill c m x y width height fg bg = Ok m' /\ vesa_wf c f d m' /\
    grid_equiv (cell_rel f d) (vesa_grid c f m') (g_fill (vesa_grid c f m) x y width height (solid_cell bgb)).
Proof.
  intros W H1.
  destruct (vesa_fill_spec c f d m x y width height fg bg W H1) as [m' [bgb [P1 [E [E1 E2]]]]].
  exists m', bgb.
  split; [exact P1|]. split; [exact E|]. split; [eapply vesa_wf_keep; eauto|].
  unfold grid_equiv. cbn [g_fill gw gh vesa_grid]. split; [reflexivity|]. split; [reflexivity|].
  intros cx cy G. apply in_grid_spec in G. cbn [vesa_grid gw gh] in G.
  intros r q k Hr Hq Hk. cbn [vesa_grid g_fill gcell gw gh]. rewrite E2.
  pose proof (ncomp_le c f d m W) as Hnc.
  destruct (pix_place c f d m cx cy r q k W ltac:(lia) ltac:(lia) Hr Hq ltac:(lia)) as [PL CE].
  unfold fill_ref. rewrite PL, CE.
  replace (k <? ncomp d) with true by (symmetry; apply N.ltb_lt; exact Hk). rewrite andb_true_r.
  replace (in_fill (vesa_dims c) x y width height cx cy)
    with (in_fill (vesa_grid c f m) x y width height cx cy) by reflexivity.
  destruct (in_fill (vesa_grid c f m) x y width height cx cy); reflexivity.
Qed.

(** Scroll: the lines that exist on both sides of the move show what the source lines showed; the
    vacated lines hold SOME content (here: whatever the driver left there) *)
Lemma vesa_scroll_refines c f d m dir sd lines :
  vesa_wf c f d m -> lines < two32 -> dir_of dir = Some sd ->
  exists m', vesa_scroll c m dir lines = Ok m' /\ vesa_wf c f d m' /\
    grid_equiv (cell_rel f d) (vesa_grid c f m')
               (g_scroll (vesa_grid c f m) sd lines (gcell (vesa_grid c f m'))).
Proof.
  intros W Hl Hd.
  destruct (scroll_ok (vesa_dims c) lines) eqn:Hok.
  - destruct (vesa_scroll_lines c f d m dir lines sd W Hl Hd Hok) as [m' [E [E1 E2]]].
    exists m'. split; [exact E|]. split; [eapply vesa_wf_keep; eauto|].
    unfold grid_equiv. split; [|split].
    + unfold g_scroll. destruct (scroll_ok (vesa_grid c f m) lines); reflexivity.
    + unfold g_scroll. destruct (scroll_ok (vesa_grid c f m) lines); reflexivity.
    + intros cx cy G. apply in_grid_spec in G. cbn [vesa_grid gw gh] in G.
      intros r q k Hr Hq Hk. unfold g_scroll.
      replace (scroll_ok (vesa_grid c f m) lines) with true by (symmetry; exact Hok).
      cbn [gcell vesa_grid gh]. unfold pix_index.
      pose proof (ncomp_le c f d m W) as Hnc.
      pose proof (geometry_cols c f d m W) as G1.
      assert (HX: (cx - 1) * f_gw f + f_gw f <= wchars c * f_gw f).
      { replace ((cx - 1) * f_gw f + f_gw f) with ((cx - 1 + 1) * f_gw f) by lia. apply N.mul_le_mono_r. lia. }
      assert (Hb: ((cx - 1) * f_gw f + q) * bytespp c + k < pw c * bytespp c).
      { assert (((cx - 1) * f_gw f + q + 1) * bytespp c <= pw c * bytespp c) by (apply N.mul_le_mono_r; lia). lia. }
      specialize (E2 cy r (((cx - 1) * f_gw f + q) * bytespp c + k) ltac:(lia) Hr Hb).
      unfold line_row in E2. rewrite !N.add_assoc in E2.
      destruct sd.
      * destruct (N.leb_spec (cy + lines) (hchars c)); auto.
      * destruct (N.ltb_spec lines cy); auto.
  - destruct (vesa_scroll_spec c f d m dir lines W Hl) as [m' [E [E1 E2]]].
    exists m'. split; [exact E|]. split; [eapply vesa_wf_keep; eauto|].
    unfold grid_equiv. split; [|split].
    + unfold g_scroll. destruct (scroll_ok (vesa_grid c f m) lines); reflexivity.
    + unfold g_scroll. destruct (scroll_ok (vesa_grid c f m) lines); reflexivity.
    + intros cx cy G r q k Hr Hq Hk. unfold g_scroll.
      replace (scroll_ok (vesa_grid c f m) lines) with false by (symmetry; exact Hok).
      cbn [gcell vesa_grid]. rewrite E2, Hd, Hok. reflexivity.
Qed.
