(** Proofs about the shared loops of the console models: a span of pixels/cells, a rectangle of
    spans, row copies.  Memory is addressed in two dimensions: index = Y * pitch + b, b < pitch. *)
From Coq Require Import NArith ZArith PArith Arith Bool List Lia.
From Coq Require Import ZifyBool ZifyN ZifyNat.
From FF Require Import Lib.Word Console.Mem Console.MemProofs Console.Loop Console.LoopProofs Console.Ops.
Import ListNotations.
Local Open Scope N_scope.

(** ---- 32-bit arithmetic without wrap-around ---- *)
Lemma add32_small a b : a + b < two32 -> add32 a b = a + b.
Proof. intros H. unfold add32. now apply w32_small. Qed.

Lemma sub32_small a b : b <= a -> a < two32 -> sub32 a b = a - b.
Proof.
  intros H1 H2. unfold sub32. rewrite (w32_small b) by lia.
  replace (a + two32 - b) with (a - b + 1 * two32) by lia.
  unfold w32. rewrite N.mod_add by discriminate. apply N.mod_small. lia.
Qed.

Lemma mul32_small a b : a * b < two32 -> mul32 a b = a * b.
Proof. intros H. unfold mul32. now apply w32_small. Qed.

(** ---- two-dimensional addressing ---- *)
Lemma coord_unique P Y b Y' b' : b < P -> b' < P -> Y * P + b = Y' * P + b' -> Y = Y' /\ b = b'.
Proof.
  intros H1 H2 E. apply (N.div_mod_unique P); auto. rewrite !(N.mul_comm P). exact E.
Qed.

Lemma coord_index P Y b : b < P -> (Y * P + b) / P = Y /\ (Y * P + b) mod P = b.
Proof.
  intros Hb. assert (HP: P <> 0) by lia.
  pose proof (N.div_mod (Y * P + b) P HP) as D. pose proof (N.mod_lt (Y * P + b) P HP) as M.
  rewrite (N.mul_comm P) in D. apply coord_unique in D; auto. destruct D. auto.
Qed.

Lemma slot_index s k d : k * s <= d < k * s + s -> d / s = k /\ d mod s = d - k * s.
Proof.
  intros H. replace d with (k * s + (d - k * s)) at 1 2 by lia. apply coord_index. lia.
Qed.

Lemma row_lt P Y b K : b < P -> (Y * P + b < K * P <-> Y < K).
Proof.
  intros Hb. split; intros H.
  - destruct (N.lt_ge_cases Y K) as [|Hge]; auto.
    assert (K * P <= Y * P) by (apply N.mul_le_mono_r; lia). lia.
  - assert ((Y + 1) * P <= K * P) by (apply N.mul_le_mono_r; lia). lia.
Qed.

Lemma row_le P Y b K : b < P -> (K * P <= Y * P + b <-> K <= Y).
Proof. intros Hb. pose proof (row_lt P Y b K Hb). lia. Qed.

Lemma span_coord P Y b Y0 a n :
  b < P -> a + n <= P ->
  (Y0 * P + a <=? Y * P + b) && (Y * P + b <? Y0 * P + a + n) = (Y =? Y0) && (a <=? b) && (b <? a + n).
Proof.
  intros Hb Han.
  pose proof (row_le P Y b Y0 Hb) as R1. pose proof (row_lt P Y b (Y0 + 1) Hb) as R2.
  destruct (N.eqb_spec Y Y0) as [->|Hne]; cbn [andb].
  - clear R1 R2. lia.
  - lia.
Qed.

(** units of [g] elements (bytes of a pixel, pixels of a cell): element [X] lies in unit [X / g] *)
Lemma div_le_iff g a X : 1 <= g -> (a * g <= X <-> a <= X / g).
Proof.
  intros Hg. assert (Hg0: g <> 0) by lia. split; intros H.
  - apply N.div_le_lower_bound; [exact Hg0|]. now rewrite N.mul_comm.
  - apply N.le_trans with (X / g * g); [now apply N.mul_le_mono_r|].
    rewrite N.mul_comm. now apply N.mul_div_le.
Qed.

Lemma div_lt_iff g a X : 1 <= g -> (X < a * g <-> X / g < a).
Proof. intros Hg. rewrite <- !N.nle_gt, (div_le_iff g a X Hg). reflexivity. Qed.

Lemma div_range g A B X : 1 <= g ->
  (A * g <=? X) && (X <? A * g + B * g) = (A <=? X / g) && (X / g <? A + B).
Proof.
  intros Hg. rewrite <- N.mul_add_distr_r. apply eq_iff_eq_true.
  rewrite !andb_true_iff, !N.leb_le, !N.ltb_lt, (div_le_iff g A X Hg), (div_lt_iff g (A + B) X Hg).
  reflexivity.
Qed.

Lemma unit_shift s A b : 1 <= s -> A * s <= b -> (b - A * s) / s = b / s - A /\ (b - A * s) mod s = b mod s.
Proof.
  intros Hs H. pose proof (N.sub_add _ _ H) as E. set (r := b - A * s) in *. clearbody r. subst b.
  rewrite N.div_add, N.mod_add, N.add_sub by lia. auto.
Qed.

(** a painted span of [B] pixels of [s] bytes from pixel [A] on, read pixel-wise: byte [b] is byte
    [b mod s] of pixel [b / s] *)
Lemma pixel_cols s A B k b {T} (v : N -> N -> T) (e : T) (r : bool) : 1 <= s ->
  (if r && (A * s <=? b) && (b <? A * s + B * s) && ((b - A * s) mod s <? k)
   then v ((b - A * s) / s) ((b - A * s) mod s) else e)
  = (if r && (A <=? b / s) && (b / s <? A + B) && (b mod s <? k) then v (b / s - A) (b mod s) else e).
Proof.
  intros Hs. rewrite <- !(andb_assoc r), div_range by exact Hs.
  destruct (N.leb_spec A (b / s)) as [H|H]; [|cbn [andb]; now rewrite andb_false_r].
  apply (div_le_iff s A b Hs) in H. destruct (unit_shift s A b Hs H) as [-> ->]. reflexivity.
Qed.

(** ---- store_seq ---- *)

Lemma store_seq_ok bytes : forall m off k,
  off + k + N.of_nat (length bytes) <= flen m -> flen m <= two32 ->
  exists m', store_seq m off k bytes = (m', true) /\ flen m' = flen m /\
    forall i, load m' i =
      if (off + k <=? i) && (i <? off + k + N.of_nat (length bytes)) then byte_at bytes (i - off - k) else load m i.
Proof.
  induction bytes as [|b rest IH]; intros m off k Hfit Hlen.
  - exists m. cbn. repeat split; auto. intros i.
    replace ((off + k <=? i) && (i <? off + k + 0)) with false by lia. reflexivity.
  - cbn [store_seq length] in *.
    assert (E: (if k =? 0 then off else add32 off k) = off + k).
    { destruct (N.eqb_spec k 0). lia. apply add32_small. lia. }
    rewrite E, store_chk_some by lia.
    destruct (IH (store m (off + k) b) off (k + 1)) as [m' [E1 [E2 E3]]]; rewrite ?flen_store; try lia.
    exists m'. repeat split; auto. intros i. rewrite E3, load_store. unfold byte_at.
    set (n := N.of_nat (length rest)). replace (N.of_nat (S (length rest))) with (n + 1) by lia.
    destruct (N.eqb_spec i (off + k)) as [->|Hne].
    + replace ((off + (k + 1) <=? off + k) && (off + k <? off + (k + 1) + n)) with false by lia.
      replace ((off + k <=? off + k) && (off + k <? off + k + (n + 1))) with true by lia.
      replace (off + k - off - k) with 0 by lia. reflexivity.
    + replace ((off + k <=? i) && (i <? off + k + (n + 1))) with ((off + (k + 1) <=? i) && (i <? off + (k + 1) + n)) by lia.
      destruct (N.leb_spec (off + (k + 1)) i); [|reflexivity].
      replace (N.to_nat (i - off - k)) with (S (N.to_nat (i - off - (k + 1)))) by lia. reflexivity.
Qed.

(** ---- a span of [n] pixels, [s] bytes apart, the first [length bytes] bytes of each stored ---- *)
Lemma fill_span s bytes n m ro :
  1 <= s -> N.of_nat (length bytes) <= s ->
  ro + n * s <= flen m -> flen m < two32 ->
  exists m', whileP (fill_px_step (add32 ro (n * s)) s bytes) fuel32 (m, ro) = Done (m', ro + n * s) /\
    flen m' = flen m /\
    forall i, load m' i =
      if (ro <=? i) && (i <? ro + n * s) && ((i - ro) mod s <? N.of_nat (length bytes))
      then byte_at bytes ((i - ro) mod s) else load m i.
Proof.
  intros Hs Hnb Hfit Hlen.
  set (nb := N.of_nat (length bytes)) in *.
  pose (Inv := fun (K : N) (st : fbuf * N) =>
    snd st = ro + K * s /\ flen (fst st) = flen m /\
    forall i, load (fst st) i =
      if (ro <=? i) && (i <? ro + K * s) && ((i - ro) mod s <? nb)
      then byte_at bytes ((i - ro) mod s) else load m i).
  assert (Hbound: add32 ro (n * s) = ro + n * s) by (apply add32_small; lia).
  assert (Hn: n * 1 <= n * s) by (apply N.mul_le_mono_l; lia).
  destruct (whileP_inv (fill_px_step (add32 ro (n * s)) s bytes) Inv n (m, ro)) as [[m' off'] [E [I1 [I2 I3]]]].
  - lia.
  - unfold Inv. cbn [fst snd]. repeat split; try lia. intros i.
    destruct (N.leb_spec ro i), (N.ltb_spec i (ro + 0 * s)); auto; lia.
  - intros K [mk off] Hk [I1 [I2 I3]]. cbn [fst snd] in *. subst off.
    assert (Hk1: (K + 1) * s <= n * s) by (apply N.mul_le_mono_r; lia).
    unfold fill_px_step. rewrite Hbound.
    replace (ro + K * s <? ro + n * s) with true by lia.
    destruct (store_seq_ok bytes mk (ro + K * s) 0) as [m2 [S1 [S2 S3]]]; fold nb; try lia.
    rewrite S1. eexists. split; [reflexivity|].
    unfold Inv. cbn [fst snd]. rewrite add32_small by lia.
    repeat split; try lia.
    intros i. rewrite S3, I3. fold nb. rewrite N.add_0_r, N.sub_0_r.
    (* byte [i] lies in pixel [K], or the two sides agree *)
    destruct (N.le_gt_cases (ro + K * s) i) as [Hlo|Hlo]; [destruct (N.lt_ge_cases i (ro + K * s + s)) as [Hhi|Hhi]|].
    + destruct (slot_index s K (i - ro)) as [_ ->]; [lia|].
      replace (i - ro - K * s) with (i - (ro + K * s)) by lia.
      replace (i <? ro + K * s + nb) with (i - (ro + K * s) <? nb) by lia.
      replace (ro + K * s <=? i) with true by lia. replace (i <? ro + K * s) with false by lia.
      replace (ro <=? i) with true by lia. replace (i <? ro + (K + 1) * s) with true by lia.
      reflexivity.
    + replace (i <? ro + K * s + nb) with false by lia.
      replace (i <? ro + K * s) with false by lia. replace (i <? ro + (K + 1) * s) with false by lia.
      now rewrite !andb_false_r.
    + replace (ro + K * s <=? i) with false by lia.
      replace (i <? ro + (K + 1) * s) with (i <? ro + K * s) by lia. reflexivity.
  - intros [mk off] [I1 _]. cbn [fst snd] in *. unfold fill_px_step. rewrite Hbound.
    subst off. rewrite N.ltb_irrefl. reflexivity.
  - cbn [fst snd] in *. subst off'. exists m'. rewrite E. repeat split; auto.
Qed.

(** [mj] is [m] with the columns [a, a+n) selected by [sel] painted in the rows [rows]; [m'] is [mj]
    with the same span of row [Yr] painted: then [m'] is [m] painted in row [Yr] and in [rows]. *)
Lemma rect_add_row P a n (sel : N -> bool) (V : N -> N -> N) (rows : N -> bool) Yr (m mj m' : fbuf) :
  a + n <= P ->
  (forall Y b, b < P -> load mj (Y * P + b) =
     if rows Y && (a <=? b) && (b <? a + n) && sel (b - a) then V Y (b - a) else load m (Y * P + b)) ->
  (forall i, load m' i =
     if (Yr * P + a <=? i) && (i <? Yr * P + a + n) && sel (i - (Yr * P + a))
     then V Yr (i - (Yr * P + a)) else load mj i) ->
  forall Y b, b < P -> load m' (Y * P + b) =
     if ((Y =? Yr) || rows Y) && (a <=? b) && (b <? a + n) && sel (b - a) then V Y (b - a) else load m (Y * P + b).
Proof.
  intros Han Hj H' Y b Hb. rewrite H', Hj, span_coord by assumption.
  destruct (N.eqb_spec Y Yr) as [->|_]; cbn [andb orb]; [|reflexivity].
  replace (Yr * P + b - (Yr * P + a)) with (b - a) by lia.
  destruct (rows Yr); cbn [andb]; [|reflexivity].
  destruct ((a <=? b) && (b <? a + n) && sel (b - a)); reflexivity.
Qed.

(** ---- a rectangle: [R] rows starting at row [Y0], each the span starting at byte column [a] ---- *)
Lemma fill_rect s bytes P n R m Y0 a :
  1 <= s -> N.of_nat (length bytes) <= s -> 1 <= P ->
  a + n * s <= P -> (Y0 + R) * P <= flen m -> flen m < two32 ->
  exists m' r', whileP (fill_row_step P (n * s) s bytes) fuel32 (m, R, Y0 * P + a) = Done (m', 0, r') /\
    flen m' = flen m /\
    forall Y b, b < P ->
      load m' (Y * P + b) =
        if (Y0 <=? Y) && (Y <? Y0 + R) && (a <=? b) && (b <? a + n * s) && ((b - a) mod s <? N.of_nat (length bytes))
        then byte_at bytes ((b - a) mod s) else load m (Y * P + b).
Proof.
  intros Hs Hnb HP Hfit Hrows Hlen.
  set (nb := N.of_nat (length bytes)) in *.
  pose (Inv := fun (J : N) (st : fbuf * N * N) =>
    let '(mj, rows, ro) := st in
    rows = R - J /\ (J < R -> ro = (Y0 + J) * P + a) /\ flen mj = flen m /\
    forall Y b, b < P ->
      load mj (Y * P + b) =
        if (Y0 <=? Y) && (Y <? Y0 + J) && (a <=? b) && (b <? a + n * s) && ((b - a) mod s <? nb)
        then byte_at bytes ((b - a) mod s) else load m (Y * P + b)).
  assert (HR: R * 1 <= R * P) by (apply N.mul_le_mono_l; lia).
  destruct (whileP_inv (fill_row_step P (n * s) s bytes) Inv R (m, R, Y0 * P + a)) as [[[m' rows'] r'] [E I]].
  - lia.
  - unfold Inv. repeat split; try lia. intros Y b Hb.
    replace ((Y0 <=? Y) && (Y <? Y0 + 0)) with false by lia. reflexivity.
  - intros J [[mj rows] ro] Hj [I1 [I2 [I3 I4]]]. subst rows. specialize (I2 Hj). subst ro.
    unfold fill_row_step.
    replace (0 <? R - J) with true by lia.
    assert (Hmono: (Y0 + J + 1) * P <= (Y0 + R) * P) by (apply N.mul_le_mono_r; lia).
    destruct (fill_span s bytes n mj ((Y0 + J) * P + a)) as [m2 [S1 [S2 S3]]]; auto; try lia.
    rewrite S1. eexists. split; [reflexivity|]. unfold Inv.
    rewrite sub32_small by lia. repeat split; try lia.
    + intros Hnext. rewrite add32_small; [lia|].
      assert ((Y0 + J + 2) * P <= (Y0 + R) * P) by (apply N.mul_le_mono_r; lia). lia.
    + intros Y b Hb.
      replace ((Y0 <=? Y) && (Y <? Y0 + (J + 1))) with ((Y =? Y0 + J) || (Y0 <=? Y) && (Y <? Y0 + J)) by lia.
      revert Y b Hb.
      apply (rect_add_row P a (n * s) (fun d => d mod s <? nb) (fun _ d => byte_at bytes (d mod s))
                          (fun Y => (Y0 <=? Y) && (Y <? Y0 + J)) (Y0 + J) m mj m2 Hfit I4).
      exact S3.
  - intros [[mj rows] ro] [I1 _]. unfold fill_row_step. subst rows. rewrite N.sub_diag. reflexivity.
  - unfold Inv in I. destruct I as [I1 [_ [I3 I4]]].
    exists m', r'. rewrite E. replace rows' with 0 by lia. repeat split; auto.
Qed.

(** ---- copying a span: [for i := ro; i < ro+n; i++ { fb[i] = fb[f i] }] where no source has been
    overwritten by an earlier iteration ---- *)
Lemma copy_span (f : N -> N) n m ro :
  ro + n <= flen m -> flen m < two32 ->
  (forall i, ro <= i < ro + n -> f i < flen m /\ (f i < ro \/ i <= f i)) ->
  exists m', whileP (copy_fwd_step (add32 ro n) f) fuel32 (m, ro) = Done (m', ro + n) /\
    flen m' = flen m /\
    forall i, load m' i = if (ro <=? i) && (i <? ro + n) then load m (f i) else load m i.
Proof.
  intros Hfit Hlen Hsrc.
  pose (Inv := fun (K : N) (st : fbuf * N) =>
    snd st = ro + K /\ flen (fst st) = flen m /\
    forall i, load (fst st) i = if (ro <=? i) && (i <? ro + K) then load m (f i) else load m i).
  assert (Hbound: add32 ro n = ro + n) by (apply add32_small; lia).
  destruct (whileP_inv (copy_fwd_step (add32 ro n) f) Inv n (m, ro)) as [[m' off'] [E [I1 [I2 I3]]]].
  - lia.
  - unfold Inv. cbn [fst snd]. repeat split; try lia. intros i.
    replace ((ro <=? i) && (i <? ro + 0)) with false by lia. reflexivity.
  - intros K [mk i] Hk [I1 [I2 I3]]. cbn [fst snd] in *. subst i.
    unfold copy_fwd_step. rewrite Hbound.
    replace (ro + K <? ro + n) with true by lia.
    destruct (Hsrc (ro + K) ltac:(lia)) as [Hs1 Hs2].
    unfold copy_chk. rewrite load_chk_some, store_chk_some by lia.
    eexists. split; [reflexivity|]. unfold Inv. cbn [fst snd]. rewrite add32_small by lia.
    repeat split; rewrite ?flen_store; try lia. intros i. rewrite load_store, !I3.
    (* the source of element [ro + K] has not been overwritten *)
    replace ((ro <=? f (ro + K)) && (f (ro + K) <? ro + K)) with false by lia.
    destruct (N.eqb_spec i (ro + K)) as [->|Hne].
    + replace ((ro <=? ro + K) && (ro + K <? ro + (K + 1))) with true by lia. reflexivity.
    + replace (i <? ro + (K + 1)) with (i <? ro + K) by lia. reflexivity.
  - intros [mk i] [I1 _]. cbn [fst snd] in *. unfold copy_fwd_step. rewrite Hbound.
    subst i. rewrite N.ltb_irrefl. reflexivity.
  - cbn [fst snd] in *. subst off'. exists m'. rewrite E. repeat split; auto.
Qed.
