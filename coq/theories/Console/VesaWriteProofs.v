(** Write of the framebuffer console equals the reference painter (Console/VesaSpec.v). *)
From Coq Require Import NArith ZArith PArith Arith Bool List Lia.
From Coq Require Import ZifyBool ZifyN ZifyNat.
From FF Require Import Lib.Word Gen.Consts_device_video_console.
From FF Require Import Console.Mem Console.MemProofs Console.Loop Console.LoopProofs Console.Ops Console.OpsProofs.
From FF Require Import Console.Grid Console.Vga Console.VgaProofs Console.Vesa Console.VesaSpec Console.VesaProofs Console.VesaFillProofs.
Import ListNotations.
Local Open Scope N_scope.

(** ---- the glyph bit walk: mask and font offset in closed form ---- *)
(** value of [mask] when pixel [x] of a row is reached (before the reload test) *)
Definition mask_at (x : N) : N := if x =? 0 then 128 else N.shiftr 128 ((x - 1) mod 8 + 1).

Lemma shiftr128_cases k : k <= 8 ->
  (k = 0 /\ N.shiftr 128 k = 128) \/ (k = 1 /\ N.shiftr 128 k = 64) \/ (k = 2 /\ N.shiftr 128 k = 32) \/
  (k = 3 /\ N.shiftr 128 k = 16) \/ (k = 4 /\ N.shiftr 128 k = 8) \/ (k = 5 /\ N.shiftr 128 k = 4) \/
  (k = 6 /\ N.shiftr 128 k = 2) \/ (k = 7 /\ N.shiftr 128 k = 1) \/ (k = 8 /\ N.shiftr 128 k = 0).
Proof.
  intros H.
  assert (C: k = 0 \/ k = 1 \/ k = 2 \/ k = 3 \/ k = 4 \/ k = 5 \/ k = 6 \/ k = 7 \/ k = 8) by lia.
  destruct C as [->|[->|[->|[->|[->|[->|[->|[->| ->]]]]]]]]; cbn; tauto.
Qed.

Lemma mask_at_zero x : (mask_at x =? 0) = (1 <=? x) && ((x - 1) mod 8 =? 7).
Proof.
  unfold mask_at. destruct (N.eqb_spec x 0) as [->|Hx]; [reflexivity|].
  assert (Hr: (x - 1) mod 8 + 1 <= 8) by lia.
  destruct (shiftr128_cases _ Hr) as [[E1 E2]|[[E1 E2]|[[E1 E2]|[[E1 E2]|[[E1 E2]|[[E1 E2]|[[E1 E2]|[[E1 E2]|[E1 E2]]]]]]]]];
    rewrite E2; lia.
Qed.

(** the mask actually tested for pixel [x] (after the reload): bit 7 - x mod 8 *)
Lemma mask_eff x : (if mask_at x =? 0 then 128 else mask_at x) = N.shiftr 128 (x mod 8).
Proof.
  rewrite mask_at_zero. unfold mask_at. destruct (N.eqb_spec x 0) as [->|Hx]; [reflexivity|].
  replace (1 <=? x) with true by (symmetry; apply N.leb_le; lia). cbn [andb].
  destruct (N.eqb_spec ((x - 1) mod 8) 7) as [E|E].
  - replace (x mod 8) with 0 by lia. reflexivity.
  - f_equal. lia.
Qed.

Lemma mask_next x : N.shiftr (N.shiftr 128 (x mod 8)) 1 = mask_at (x + 1).
Proof.
  unfold mask_at. replace (x + 1 =? 0) with false by (symmetry; apply N.eqb_neq; lia).
  rewrite N.shiftr_shiftr. f_equal. lia.
Qed.

(** the font offset actually read for pixel [x] *)
Lemma foff_eff x f0 : (if mask_at x =? 0 then f0 + (x - 1) / 8 + 1 else f0 + (x - 1) / 8) = f0 + x / 8.
Proof.
  rewrite mask_at_zero. destruct (N.leb_spec 1 x) as [Hx|Hx]; cbn [andb].
  - destruct (N.eqb_spec ((x - 1) mod 8) 7) as [E|E]; lia.
  - replace x with 0 by lia. reflexivity.
Qed.

(** bit of pixel [q] in the glyph row whose bytes start at font offset [f0] *)
Definition row_bit (f : font) (f0 q : N) : bool :=
  negb (N.land (f_dat f (f0 + q / 8)) (N.shiftr 128 (q mod 8)) =? 0).

(** ---- one glyph row: the inner loop of write8/16/24 ---- *)
Lemma write_span f s fgb bgb nb m ro f0 :
  1 <= s -> N.of_nat (length fgb) = nb -> N.of_nat (length bgb) = nb -> nb <= s ->
  1 <= f_gw f -> f0 + (f_gw f - 1) / 8 < f_dlen f -> f_dlen f < two32 ->
  ro + f_gw f * s <= flen m -> flen m < two32 ->
  exists m' mk rw,
    whileP (write_px_step f s fgb bgb) fuel32 (m, 0, ro, 128, f0, f_dat f f0)
      = Done (m', f_gw f, ro + f_gw f * s, mk, f0 + (f_gw f - 1) / 8, rw) /\
    flen m' = flen m /\
    forall i, load m' i =
      if (ro <=? i) && (i <? ro + f_gw f * s) && ((i - ro) mod s <? nb)
      then byte_at (if row_bit f f0 ((i - ro) / s) then fgb else bgb) ((i - ro) mod s)
      else load m i.
Proof.
  intros Hs Hfg Hbg Hnb Hgw Hfont Hdlen Hfit Hlen.
  pose (Inv := fun (X : N) (st : wstate) =>
    let '(mx, xv, off, mask, foff, row) := st in
    xv = X /\ off = ro + X * s /\ mask = mask_at X /\
    foff = f0 + (X - 1) / 8 /\ row = f_dat f foff /\ flen mx = flen m /\
    forall i, load mx i =
      if (ro <=? i) && (i <? ro + X * s) && ((i - ro) mod s <? nb)
      then byte_at (if row_bit f f0 ((i - ro) / s) then fgb else bgb) ((i - ro) mod s)
      else load m i).
  assert (Hgw32: f_gw f * 1 <= f_gw f * s) by (apply N.mul_le_mono_l; lia).
  destruct (whileP_inv (write_px_step f s fgb bgb) Inv (f_gw f) (m, 0, ro, 128, f0, f_dat f f0))
    as [[[[[[m' xv] off] mk] foff] rw] [E I]]; auto; try lia.
  - unfold Inv. repeat split; try reflexivity; try lia. intros i.
    replace ((ro <=? i) && (i <? ro + 0 * s)) with false by lia. reflexivity.
  - intros X [[[[[mx xv] off] mask] foff] row] HX [I1 [I2 [I3 [I4 [I5 [I6 I7]]]]]].
    unfold write_px_step. subst xv.
    replace (X <? f_gw f) with true by lia.
    assert (Hdiv: X / 8 <= (f_gw f - 1) / 8) by (apply N.div_le_mono; lia).
    assert (Hdiv1: (X - 1) / 8 <= X / 8) by (apply N.div_le_mono; lia).
    rewrite (add32_small foff 1) by lia.
    assert (Efoff: (if mask =? 0 then foff + 1 else foff) = f0 + X / 8).
    { subst mask foff. apply foff_eff. }
    rewrite Efoff.
    replace (f0 + X / 8 <? f_dlen f) with true by lia.
    cbn [negb]. rewrite andb_false_r.
    assert (Erow: (if mask =? 0 then f_dat f (f0 + X / 8) else row) = f_dat f (f0 + X / 8)).
    { destruct (mask =? 0) eqn:Em; auto. subst row. f_equal. exact Efoff. }
    rewrite Erow.
    assert (Emask: (if mask =? 0 then 128 else mask) = N.shiftr 128 (X mod 8)) by (subst mask; apply mask_eff).
    rewrite Emask.
    assert (Ebytes: (if N.land (f_dat f (f0 + X / 8)) (N.shiftr 128 (X mod 8)) =? 0 then bgb else fgb)
                    = (if row_bit f f0 X then fgb else bgb)).
    { unfold row_bit. destruct (N.land (f_dat f (f0 + X / 8)) (N.shiftr 128 (X mod 8)) =? 0); reflexivity. }
    rewrite Ebytes. set (bytes := if row_bit f f0 X then fgb else bgb).
    assert (Hblen: N.of_nat (length bytes) = nb) by (subst bytes; destruct (row_bit f f0 X); assumption).
    assert (Hk1: (X + 1) * s <= f_gw f * s) by (apply N.mul_le_mono_r; lia).
    clear Hdiv Hdiv1 Efoff Erow Emask Ebytes Hfont.
    destruct (store_seq_ok bytes mx off 0) as [m2 [S1 [S2 S3]]]; try lia.
    rewrite S1. eexists. split; [reflexivity|]. unfold Inv.
    rewrite (add32_small X 1), add32_small by lia.
    rewrite mask_next, N.add_sub.
    repeat split; try lia.
    intros i. rewrite S3, I7, Hblen, N.add_0_r, N.sub_0_r. subst off.
    (* byte [i] lies in pixel [X], or the two sides agree *)
    destruct (N.le_gt_cases (ro + X * s) i) as [Hlo|Hlo]; [destruct (N.lt_ge_cases i (ro + X * s + s)) as [Hhi|Hhi]|].
    + destruct (slot_index s X (i - ro)) as [-> ->]; [lia|].
      replace (i - ro - X * s) with (i - (ro + X * s)) by lia.
      replace (i <? ro + X * s + nb) with (i - (ro + X * s) <? nb) by lia.
      replace (ro + X * s <=? i) with true by lia. replace (i <? ro + X * s) with false by lia.
      replace (ro <=? i) with true by lia. replace (i <? ro + (X + 1) * s) with true by lia.
      reflexivity.
    + replace (i <? ro + X * s + nb) with false by lia.
      replace (i <? ro + X * s) with false by lia. replace (i <? ro + (X + 1) * s) with false by lia.
      now rewrite !andb_false_r.
    + replace (ro + X * s <=? i) with false by lia.
      replace (i <? ro + (X + 1) * s) with (i <? ro + X * s) by lia. reflexivity.
  - intros [[[[[mx xv] off] mask] foff] row] [I1 _]. unfold write_px_step. subst xv.
    rewrite N.ltb_irrefl. reflexivity.
  - unfold Inv in I. destruct I as [I1 [I2 [I3 [I4 [I5 [I6 I7]]]]]].
    subst xv off foff. exists m', mk, rw. rewrite E. repeat split; auto.
Qed.

(** ---- the glyph: the outer loop of write8/16/24, in (row, byte column) coordinates ---- *)
Lemma write_rows c f s fgb bgb nb m Y0 a F0 :
  1 <= s -> N.of_nat (length fgb) = nb -> N.of_nat (length bgb) = nb -> nb <= s ->
  1 <= f_gw f -> f_bpr f = (f_gw f + 7) / 8 ->
  F0 + f_gh f * f_bpr f <= f_dlen f -> f_dlen f < two32 ->
  1 <= pitch c -> a + f_gw f * s <= pitch c -> (Y0 + f_gh f) * pitch c <= flen m -> flen m < two32 ->
  exists m' r' fo',
    whileP (write_row_step c f s fgb bgb) fuel32 (m, 0, Y0 * pitch c + a, F0) = Done (m', f_gh f, r', fo') /\
    flen m' = flen m /\
    forall Y b, b < pitch c ->
      load m' (Y * pitch c + b) =
        if (Y0 <=? Y) && (Y <? Y0 + f_gh f) && (a <=? b) && (b <? a + f_gw f * s) && ((b - a) mod s <? nb)
        then byte_at (if row_bit f (F0 + (Y - Y0) * f_bpr f) ((b - a) / s) then fgb else bgb) ((b - a) mod s)
        else load m (Y * pitch c + b).
Proof.
  intros Hs Hfg Hbg Hnb Hgw Hbpr Hfont Hdlen HP Hfit Hrows Hlen.
  set (P := pitch c) in *. set (gh := f_gh f) in *. set (bpr := f_bpr f) in *.
  assert (Hbpr1: (f_gw f - 1) / 8 + 1 = bpr).
  { rewrite Hbpr. replace (f_gw f + 7) with (f_gw f - 1 + 1 * 8) by lia. now rewrite N.div_add. }
  pose (V := fun Y d => byte_at (if row_bit f (F0 + (Y - Y0) * bpr) (d / s) then fgb else bgb) (d mod s)).
  pose (Inv := fun (R : N) (st : fbuf * N * N * N) =>
    let '(mr, y, ro, foff) := st in
    y = R /\ (R < gh -> ro = (Y0 + R) * P + a) /\ foff = F0 + R * bpr /\
    flen mr = flen m /\
    forall Y b, b < P ->
      load mr (Y * P + b) =
        if (Y0 <=? Y) && (Y <? Y0 + R) && (a <=? b) && (b <? a + f_gw f * s) && ((b - a) mod s <? nb)
        then V Y (b - a) else load m (Y * P + b)).
  assert (HR: gh * 1 <= gh * P) by (apply N.mul_le_mono_l; lia).
  assert (HR': gh * P <= (Y0 + gh) * P) by (apply N.mul_le_mono_r; lia).
  destruct (whileP_inv (write_row_step c f s fgb bgb) Inv gh (m, 0, Y0 * P + a, F0))
    as [[[[m' y'] r'] fo'] [E I]].
  - lia.
  - unfold Inv. repeat split; try lia. intros Y b Hb.
    replace ((Y0 <=? Y) && (Y <? Y0 + 0)) with false by lia. reflexivity.
  - intros R [[[mr y] ro] foff] Hr' [I1 [I2 [I3 [I4 I5]]]]. subst y. specialize (I2 Hr'). subst ro.
    unfold write_row_step. fold gh P.
    replace (R <? gh) with true by lia.
    assert (Hmono: (Y0 + R + 1) * P <= (Y0 + gh) * P) by (apply N.mul_le_mono_r; lia).
    assert (Hfm: (R + 1) * bpr <= gh * bpr) by (apply N.mul_le_mono_r; lia).
    assert (Hfo: foff + bpr <= f_dlen f) by (subst foff; lia).
    replace (foff <? f_dlen f) with true by lia. cbn [negb].
    destruct (write_span f s fgb bgb nb mr ((Y0 + R) * P + a) foff) as [m2 [mk [rw [S1 [S2 S3]]]]]; auto; try lia.
    rewrite S1. eexists. split; [reflexivity|]. unfold Inv.
    rewrite (add32_small R 1) by lia.
    rewrite (add32_small (foff + (f_gw f - 1) / 8) 1) by lia.
    repeat split; try lia.
    + intros Hnext. rewrite add32_small; [lia|].
      assert ((Y0 + R + 2) * P <= (Y0 + gh) * P) by (apply N.mul_le_mono_r; lia). lia.
    + intros Y b Hb.
      replace ((Y0 <=? Y) && (Y <? Y0 + (R + 1))) with ((Y =? Y0 + R) || (Y0 <=? Y) && (Y <? Y0 + R)) by lia.
      revert Y b Hb.
      apply (rect_add_row P a (f_gw f * s) (fun d => d mod s <? nb) V
                          (fun Y => (Y0 <=? Y) && (Y <? Y0 + R)) (Y0 + R) m mr m2 Hfit I5).
      intros i. rewrite S3, I3. unfold V. replace (Y0 + R - Y0) with R by lia. reflexivity.
  - intros [[[mr y] ro] foff] [I1 _]. unfold write_row_step. subst y. fold gh.
    rewrite N.ltb_irrefl. reflexivity.
  - unfold Inv in I. destruct I as [I1 [_ [I3 [I4 I5]]]].
    exists m', r', fo'. rewrite E. subst y'. repeat split; auto.
Qed.

Lemma cell_exact g x X : 1 <= g -> 1 <= x ->
  ((x - 1) * g <=? X) && (X <? (x - 1) * g + g) = (X / g + 1 =? x).
Proof.
  intros Hg Hx. rewrite <- (N.mul_1_l g) at 3. rewrite div_range by exact Hg.
  generalize (X / g). intros q. lia.
Qed.

Lemma cell_offset g x X : 1 <= g -> X / g + 1 = x -> X mod g = X - (x - 1) * g.
Proof.
  intros Hg E. pose proof (N.div_mod X g ltac:(lia)) as D.
  replace (X / g) with (x - 1) in D by lia. rewrite (N.mul_comm g) in D. lia.
Qed.

Lemma vesa_write_spec c f d m ch fg bg x y :
  vesa_wf c f d m -> ch < 256 -> fg < 256 -> bg < 256 -> x < two32 -> y < two32 ->
  exists m' fgb bgb, pixel_bytes c d fg = Some fgb /\ pixel_bytes c d bg = Some bgb /\
    vesa_write c m ch fg bg x y = Ok m' /\ flen m' = flen m /\
    forall i, load m' i = if in_grid (vesa_dims c) x y then write_ref c f d m ch x y fgb bgb i else load m i.
Proof.
  intros W Hch Hfg Hbg Hx32 Hy32.
  pose proof (geometry_cols c f d m W) as G1. pose proof (geometry_pitch c f d m W) as G3.
  pose proof (geometry_bytespp c f d m W) as G10.
  pose proof (wf_gw _ _ _ _ W) as Hgw. pose proof (wf_gh _ _ _ _ W) as Hgh.
  destruct (pixel_bytes_ok c f d m fg W Hfg) as [fgb [Pf Lf]].
  destruct (pixel_bytes_ok c f d m bg W Hbg) as [bgb [Pb Lb]].
  unfold vesa_write. rewrite (wf_font _ _ _ _ W).
  destruct (in_grid (vesa_dims c) x y) eqn:G.
  2:{ assert (E: (x <? 1) || (wchars c <? x) || (y <? 1) || (hchars c <? y) = true).
      { unfold in_grid in G. cbn [vesa_dims gw gh] in G. clear - G. lia. }
      rewrite E. exists m, fgb, bgb. repeat split; auto. }
  apply in_grid_spec in G. cbn [vesa_dims gw gh] in G. destruct G as [Gx Gy].
  replace ((x <? 1) || (wchars c <? x) || (y <? 1) || (hchars c <? y)) with false by lia.
  cbv zeta. rewrite (wf_depth _ _ _ _ W), Pf, Pb, (px_step_eq c f d m W).
  destruct (cell_origin c f d m x y W Gx Gy) as [-> [-> ->]].
  destruct (cell_rect_fits c f d m x y 1 1 W) as [F1 [F2 [F3 _]]]; try lia. rewrite !N.mul_1_l in F1, F2.
  (* the glyph in the font data *)
  assert (HF: (ch + 1) * (f_bpr f * f_gh f) <= 256 * (f_bpr f * f_gh f)) by (apply N.mul_le_mono_r; lia).
  assert (HF1: ch * f_bpr f * 1 <= ch * f_bpr f * f_gh f) by (apply N.mul_le_mono_l; lia).
  pose proof (wf_dlen _ _ _ _ W) as Hdl. pose proof (wf_dlen32 _ _ _ _ W) as Hdl32.
  rewrite (mul32_small ch), (mul32_small (ch * f_bpr f)) by lia.
  destruct (write_rows c f (bytespp c) fgb bgb (ncomp d) m ((y - 1) * f_gh f + offsetY c)
                       ((x - 1) * f_gw f * bytespp c) (ch * f_bpr f * f_gh f))
    as [m' [r' [fo' [E [E1 E2]]]]]; auto; try lia.
  { apply (ncomp_le c f d m W). }
  { apply (wf_bpr _ _ _ _ W). }
  rewrite E. cbn [res_of_loop fst]. exists m', fgb, bgb. repeat split; auto.
  clear HF HF1 Hdl Hdl32 F1 F2 F3 E Hx32 Hy32.
  intros i. destruct (index_coord c f d m i W) as [Hi Hb].
  unfold write_ref, place_of, cell_of.
  rewrite Hi at 1. rewrite E2 by assumption. rewrite <- Hi. clear E2 Hi.
  generalize dependent (i mod pitch c). generalize (i / pitch c). intros Y b Hb.
  set (Cy := (y - 1) * f_gh f).
  rewrite (pixel_cols (bytespp c) _ _ _ b
             (fun q k => byte_at (if row_bit f (ch * f_bpr f * f_gh f + (Y - (Cy + offsetY c)) * f_bpr f) q
                                  then fgb else bgb) k)) by lia.
  rewrite <- (andb_assoc _ ((x - 1) * f_gw f <=? b / bytespp c) _), cell_exact by lia.
  destruct (N.ltb_spec b (pw c * bytespp c)) as [Hvis|Hpad].
  2:{ (* padding: right of every cell *)
      apply (div_le_iff (bytespp c)) in Hpad; [|lia].
      assert (Hr: (b / bytespp c <? wchars c * f_gw f) = false) by (generalize dependent (b / bytespp c); intros; lia).
      rewrite grid_range in Hr by lia.
      replace (b / bytespp c / f_gw f + 1 =? x) with false by (generalize dependent (b / bytespp c / f_gw f); intros; lia).
      now rewrite !andb_false_r. }
  generalize (b mod bytespp c) (b / bytespp c). intros k X.
  rewrite (grid_range (f_gw f)) by lia.
  destruct (N.eqb_spec (X / f_gw f + 1) x) as [Ecx|Ecx].
  2:{ rewrite !andb_false_r. cbn [andb].
      apply N.eqb_neq in Ecx.
      destruct ((X / f_gw f + 1 <=? wchars c) && (offsetY c <=? Y) && (Y <? offsetY c + hchars c * f_gh f));
        [rewrite Ecx|]; reflexivity. }
  replace (X / f_gw f + 1 <=? wchars c) with true by lia. rewrite andb_true_r. cbn [andb].
  destruct (N.leb_spec (offsetY c) Y) as [HYo|HYo].
  2:{ replace (Cy + offsetY c <=? Y) with false by lia. reflexivity. }
  replace (Cy + offsetY c <=? Y) with (Cy <=? Y - offsetY c) by lia.
  replace (Y <? Cy + offsetY c + f_gh f) with (Y - offsetY c <? Cy + f_gh f) by lia.
  replace (Y <? offsetY c + hchars c * f_gh f) with (Y - offsetY c <? hchars c * f_gh f) by lia.
  replace (Y - (Cy + offsetY c)) with (Y - offsetY c - Cy) by lia.
  subst Cy. rewrite cell_exact, (grid_range (f_gh f)) by lia. cbn [andb].
  destruct (N.eqb_spec ((Y - offsetY c) / f_gh f + 1) y) as [Ecy|Ecy].
  2:{ apply N.eqb_neq in Ecy.
      destruct ((Y - offsetY c) / f_gh f + 1 <=? hchars c); [rewrite Ecy, andb_false_r|]; reflexivity. }
  replace ((Y - offsetY c) / f_gh f + 1 <=? hchars c) with true by lia.
  rewrite (cell_offset (f_gw f) x X), (cell_offset (f_gh f) y (Y - offsetY c)) by lia.
  rewrite Ecx, Ecy, !N.eqb_refl. reflexivity.
Qed.
