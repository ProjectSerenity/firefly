(** Proofs about the text-mode console model (Console/Vga.v): Write, Fill and Scroll touch exactly
    the cells the property C19 names, for every geometry and every 32-bit argument, never index
    outside the framebuffer, and refine the cell-level semantics of Console/Grid.v.
    Also here, used by the framebuffer proofs as well: [in_grid_spec], and the closed forms of clamping and
    clipping ([clamp_org_eq], [clip_ext_eq], [clip_cells]). *)
From Coq Require Import NArith ZArith PArith Arith Bool List Lia.
From Coq Require Import ZifyBool ZifyN ZifyNat.
From FF Require Import Lib.Word Gen.Consts_device_video_console.
From FF Require Import Console.Mem Console.MemProofs Console.Loop Console.LoopProofs Console.Ops Console.OpsProofs.
From FF Require Import Console.Grid Console.Vga.
Import ListNotations.
Local Open Scope N_scope.

(** geometry: at least one cell, the buffer is the W*H cells DriverInit maps, sizes fit 32 bits *)
Definition vga_wf (c : vga) (m : fbuf) : Prop :=
  1 <= vw c /\ 1 <= vh c /\ vw c * vh c < two32 /\ flen m = vw c * vh c.

(** the framebuffer element of cell (x,y), 1-based *)
Definition cell_idx (c : vga) (x y : N) : N := (y - 1) * vw c + (x - 1).

(** what the screen shows *)
Definition vga_grid (c : vga) (m : fbuf) : grid N :=
  mkGrid (vw c) (vh c) (fun x y => load m (cell_idx c x y)).

Lemma in_grid_spec {C} (g : grid C) x y : in_grid g x y = true <-> 1 <= x <= gw g /\ 1 <= y <= gh g.
Proof. unfold in_grid. rewrite !andb_true_iff, !N.leb_le. tauto. Qed.

Lemma cell_idx_lt c m x y : vga_wf c m -> 1 <= x <= vw c -> 1 <= y <= vh c -> cell_idx c x y < flen m.
Proof.
  intros [H1 [H2 [H3 H4]]] Hx Hy. unfold cell_idx. rewrite H4.
  assert ((y - 1 + 1) * vw c <= vh c * vw c) by (apply N.mul_le_mono_r; lia). lia.
Qed.

Lemma cell_idx_inj c x y x' y' :
  1 <= x <= vw c -> 1 <= x' <= vw c -> 1 <= y -> 1 <= y' ->
  cell_idx c x y = cell_idx c x' y' -> x = x' /\ y = y'.
Proof.
  intros Hx Hx' Hy Hy' E. unfold cell_idx in E.
  destruct (coord_unique (vw c) (y - 1) (x - 1) (y' - 1) (x' - 1)); try lia.
Qed.

(** every element of the buffer is a cell of the grid *)
Lemma cell_idx_surj c m i :
  vga_wf c m -> i < flen m ->
  exists x y, 1 <= x <= vw c /\ 1 <= y <= vh c /\ i = cell_idx c x y.
Proof.
  intros [H1 [H2 [H3 H4]]] Hi. exists (i mod vw c + 1), (i / vw c + 1). unfold cell_idx.
  assert (i mod vw c < vw c) by (apply N.mod_lt; lia).
  assert (i / vw c < vh c) by (apply N.div_lt_upper_bound; lia).
  pose proof (N.div_mod i (vw c) ltac:(lia)).
  set (q := i / vw c) in *. set (r := i mod vw c) in *. clearbody q r.
  replace (q + 1 - 1) with q by lia. replace (r + 1 - 1) with r by lia.
  repeat split; lia.
Qed.

(** ---- Write ---- *)
(** colours above the palette are replaced by the default (vga_text.go: "If fg or bg exceed the
    supported colors for this console, they will be set to their default value") *)
Definition text_colour (dflt v : N) : N := if vga_maxColorIndex <? v then dflt else v.

Lemma vga_write_spec c m ch fg bg x y :
  vga_wf c m -> x < two32 -> y < two32 ->
  exists m', vga_write c m ch fg bg x y = Ok m' /\ flen m' = flen m /\
    forall i, load m' i =
      if in_grid (vga_grid c m) x y && (i =? cell_idx c x y)
      then cell16 (text_colour vga_defaultBg bg) (text_colour vga_defaultFg fg) ch
      else load m i.
Proof.
  intros Hwf Hx Hy. pose proof Hwf as [H1 [H2 [H3 H4]]]. unfold vga_write.
  destruct (in_grid (vga_grid c m) x y) eqn:G.
  - apply in_grid_spec in G. cbn [vga_grid gw gh] in G.
    replace ((x <? 1) || (vw c <? x) || (y <? 1) || (vh c <? y)) with false by (symmetry; lia).
    pose proof (cell_idx_lt c m x y Hwf ltac:(lia) ltac:(lia)) as Hlt. unfold cell_idx in Hlt.
    rewrite (sub32_small y 1), (sub32_small x 1) by lia.
    rewrite mul32_small by lia. rewrite add32_small by lia.
    unfold of_opt. rewrite store_chk_some by lia.
    eexists. split; [reflexivity|]. split; [apply flen_store|].
    intros i. rewrite load_store. unfold cell_idx, text_colour. cbn [andb]. reflexivity.
  - assert (E: (x <? 1) || (vw c <? x) || (y <? 1) || (vh c <? y) = true).
    { unfold in_grid in G. cbn [vga_grid gw gh] in G. lia. }
    rewrite E. exists m. repeat split; auto.
Qed.

(** ---- Fill ---- *)
Lemma clamp_org_eq v m : clamp_org v m = clamp1 v m.
Proof. reflexivity. Qed.

Lemma clip_ext_eq ext org m : 1 <= org <= m -> m < two32 -> clip_ext ext org m = N.min ext (m - org + 1).
Proof.
  intros H Hm. unfold clip_ext. rewrite sub32_small, add32_small by lia.
  destruct (N.ltb_spec (m - org + 1) ext); lia.
Qed.

(** clipping at the edge, cell-wise: [q] is the 0-based cell coordinate *)
Lemma clip_cells x0 width wc q :
  1 <= x0 <= wc ->
  (q <? x0 - 1 + N.min width (wc - x0 + 1)) = (q + 1 <? x0 + width) && (q + 1 <=? wc).
Proof. intros H. lia. Qed.

Lemma vga_fill_spec c m x y width height fg bg :
  vga_wf c m ->
  exists m', vga_fill c m x y width height fg bg = Ok m' /\ flen m' = flen m /\
    forall cx cy, in_grid (vga_grid c m) cx cy = true ->
      load m' (cell_idx c cx cy) =
        if in_fill (vga_grid c m) x y width height cx cy
        then N.lor (attr16 bg fg) vga_clearChar
        else load m (cell_idx c cx cy).
Proof.
  intros Hwf. pose proof Hwf as [H1 [H2 [H3 H4]]]. unfold vga_fill. cbv zeta.
  rewrite !(clamp_org_eq x), !(clamp_org_eq y).
  pose proof (clamp1_range x (vw c) H1) as Hx. pose proof (clamp1_range y (vh c) H2) as Hy.
  set (x0 := clamp1 x (vw c)) in *. set (y0 := clamp1 y (vh c)) in *.
  assert (Hw32: vw c * 1 <= vw c * vh c) by (apply N.mul_le_mono_l; lia).
  assert (Hh32: 1 * vh c <= vw c * vh c) by (apply N.mul_le_mono_r; lia).
  rewrite !clip_ext_eq by lia.
  set (w' := N.min width (vw c - x0 + 1)). set (h' := N.min height (vh c - y0 + 1)).
  pose proof (cell_idx_lt c m x0 y0 Hwf Hx Hy) as Hlt. unfold cell_idx in Hlt.
  rewrite (sub32_small y0 1), (sub32_small x0 1) by lia.
  rewrite mul32_small by lia. rewrite add32_small by lia.
  set (clr := N.lor (attr16 bg fg) vga_clearChar).
  assert (Hrows: (y0 - 1 + h') * vw c <= flen m).
  { rewrite H4, (N.mul_comm (vw c)). apply N.mul_le_mono_r. lia. }
  rewrite <- (N.mul_1_r w').
  destruct (fill_rect 1 [clr] (vw c) w' h' m (y0 - 1) (x0 - 1)) as [m' [r' [E [E1 E2]]]];
    cbn [length N.of_nat Pos.of_succ_nat]; try lia.
  rewrite E. cbn [res_of_loop fst].
  exists m'. repeat split; auto.
  intros cx cy G. apply in_grid_spec in G. cbn [vga_grid gw gh] in G.
  unfold cell_idx. rewrite E2 by lia. unfold in_fill. cbn [vga_grid gw gh]. fold x0 y0.
  rewrite N.mod_1_r, N.mul_1_r. subst w' h'. rewrite !clip_cells by assumption.
  replace (cx - 1 + 1) with cx by lia. replace (cy - 1 + 1) with cy by lia.
  replace (y0 - 1 <=? cy - 1) with (y0 <=? cy) by lia. replace (x0 - 1 <=? cx - 1) with (x0 <=? cx) by lia.
  cbn. rewrite andb_true_r.
  match goal with |- (if ?a then _ else _) = (if ?b then _ else _) => replace a with b; [reflexivity|] end.
  destruct (x0 <=? cx), (cx <? x0 + width), (cx <=? vw c), (y0 <=? cy), (cy <? y0 + height), (cy <=? vh c); reflexivity.
Qed.

(** ---- Scroll ---- *)
Lemma vga_scroll_down_loop m low top off :
  1 <= off -> off <= low -> low <= top + 1 -> top < flen m -> flen m < two32 ->
  exists m', whileP (vga_scroll_down_step low off) fuel32 (m, top) = Done (m', low - 1) /\
    flen m' = flen m /\
    forall j, load m' j = if (low <=? j) && (j <=? top) then load m (j - off) else load m j.
Proof.
  intros Hoff Hlow Htop Hfit Hlen.
  pose (Inv := fun (K : N) (st : fbuf * N) =>
    snd st = top - K /\ flen (fst st) = flen m /\
    forall j, load (fst st) j = if (top - K <? j) && (j <=? top) then load m (j - off) else load m j).
  destruct (whileP_inv (vga_scroll_down_step low off) Inv (top + 1 - low) (m, top)) as [[m' i'] [E [I1 [I2 I3]]]].
  - lia.
  - unfold Inv. cbn [fst snd]. repeat split; try lia. intros j.
    replace ((top - 0 <? j) && (j <=? top)) with false by lia. reflexivity.
  - intros K [mk i] Hk [I1 [I2 I3]]. cbn [fst snd] in *. subst i.
    unfold vga_scroll_down_step.
    replace (low <=? top - K) with true by lia.
    unfold copy_chk. rewrite sub32_small by lia. rewrite load_chk_some, store_chk_some by lia.
    eexists. split; [reflexivity|]. unfold Inv. cbn [fst snd]. rewrite sub32_small by lia.
    repeat split; rewrite ?flen_store; try lia. intros j. rewrite load_store, !I3.
    (* the source of element [top - K] lies below it: not overwritten yet *)
    replace ((top - K <? top - K - off) && (top - K - off <=? top)) with false by lia.
    destruct (N.eqb_spec j (top - K)) as [->|Hne].
    + replace ((top - (K + 1) <? top - K) && (top - K <=? top)) with true by lia. reflexivity.
    + replace (top - (K + 1) <? j) with (top - K <? j) by lia. reflexivity.
  - intros [mk i] [I1 _]. cbn [fst snd] in *. unfold vga_scroll_down_step.
    replace (low <=? i) with false by lia. reflexivity.
  - cbn [fst snd] in *. exists m'. rewrite E. replace i' with (low - 1) by lia. repeat split; auto.
    intros j. rewrite I3. replace (top - (top + 1 - low) <? j) with (low <=? j) by lia. reflexivity.
Qed.

Definition dir_of (d : N) : option scroll_dir :=
  if d =? console_ScrollDirUp then Some ScrollUp
  else if d =? console_ScrollDirDown then Some ScrollDown else None.

(** the element-level effect of a scroll by [n] lines *)
Definition vga_scrolled (c : vga) (m : fbuf) (d : scroll_dir) (n i : N) : N :=
  match d with
  | ScrollUp => if i <? (vh c - n) * vw c then load m (i + n * vw c) else load m i
  | ScrollDown => if (n * vw c <=? i) && (i <? vh c * vw c) then load m (i - n * vw c) else load m i
  end.

Lemma vga_scroll_spec c m dir lines :
  vga_wf c m -> lines < two32 ->
  exists m', vga_scroll c m dir lines = Ok m' /\ flen m' = flen m /\
    forall i, load m' i =
      match dir_of dir with
      | Some d => if scroll_ok (vga_grid c m) lines then vga_scrolled c m d lines i else load m i
      | None => load m i
      end.
Proof.
  intros Hwf Hl. pose proof Hwf as [H1 [H2 [H3 H4]]]. unfold vga_scroll, scroll_ok. cbn [vga_grid gh].
  assert (Hw32: vw c < two32) by nia. assert (Hh32: vh c < two32) by nia.
  destruct ((lines =? 0) || (vh c <? lines)) eqn:G.
  - exists m. repeat split; auto. intros i.
    replace ((1 <=? lines) && (lines <=? vh c)) with false by (symmetry; clear - G H2; lia).
    destruct (dir_of dir); auto.
  - assert (Hr: 1 <= lines <= vh c) by (clear - G; lia).
    replace ((1 <=? lines) && (lines <=? vh c)) with true by (symmetry; clear - Hr; lia).
    assert (Hlw: lines * vw c <= vh c * vw c) by (apply N.mul_le_mono_r; lia).
    assert (Hlw1: 1 * vw c <= lines * vw c) by (apply N.mul_le_mono_r; lia).
    rewrite (mul32_small lines) by lia.
    unfold dir_of. destruct (dir =? console_ScrollDirUp) eqn:Du.
    + rewrite sub32_small by lia.
      assert (Hn: (vh c - lines) * vw c + lines * vw c = vh c * vw c) by (rewrite <- N.mul_add_distr_r; f_equal; lia).
      rewrite mul32_small by lia.
      destruct (copy_span (fun i => add32 i (lines * vw c)) ((vh c - lines) * vw c) m 0) as [m' [E [E1 E2]]]; try lia.
      { intros i Hi. rewrite add32_small by lia. lia. }
      unfold vga_scroll_up_step. rewrite add32_small in E by lia. rewrite N.add_0_l in E. rewrite E.
      exists m'. repeat split; auto. intros i. rewrite E2. unfold vga_scrolled.
      rewrite N.add_0_l. cbn [N.leb]. replace (0 <=? i) with true by (symmetry; lia). cbn [andb].
      destruct (N.ltb_spec i ((vh c - lines) * vw c)); auto. rewrite add32_small by lia. reflexivity.
    + destruct (dir =? console_ScrollDirDown) eqn:Dd.
      * rewrite (mul32_small (vh c)) by lia. rewrite sub32_small by lia.
        destruct (vga_scroll_down_loop m (lines * vw c) (vh c * vw c - 1) (lines * vw c)) as [m' [E [E1 E2]]]; try lia.
        rewrite E. exists m'. repeat split; auto. intros i. rewrite E2. unfold vga_scrolled.
        replace (i <=? vh c * vw c - 1) with (i <? vh c * vw c) by lia. reflexivity.
      * exists m. repeat split; auto.
Qed.

(** ---- the driver refines the cell-level semantics (Console/Grid.v) ---- *)
Lemma vga_wf_keep c m m' : vga_wf c m -> flen m' = flen m -> vga_wf c m'.
Proof. unfold vga_wf. intros [A [B [C D]]] E. rewrite E. auto. Qed.

Lemma vga_write_refines c m ch fg bg x y :
  vga_wf c m -> x < two32 -> y < two32 ->
  exists m', vga_write c m ch fg bg x y = Ok m' /\ vga_wf c m' /\
    grid_eq (vga_grid c m')
            (g_write (vga_grid c m) x y (cell16 (text_colour vga_defaultBg bg) (text_colour vga_defaultFg fg) ch)).
Proof.
  intros Hwf Hx Hy. destruct (vga_write_spec c m ch fg bg x y Hwf Hx Hy) as [m' [E [E1 E2]]].
  exists m'. split; auto. split; [eapply vga_wf_keep; eauto|].
  unfold grid_eq, grid_equiv. destruct (g_write_dims (vga_grid c m) x y (cell16 (text_colour vga_defaultBg bg) (text_colour vga_defaultFg fg) ch)) as [D1 D2].
  rewrite D1, D2. repeat split; auto.
  intros cx cy G. cbn [vga_grid gcell]. rewrite E2.
  apply in_grid_spec in G. cbn [vga_grid gw gh] in G.
  unfold g_write. destruct (in_grid (vga_grid c m) x y) eqn:Gx; cbn [andb gcell vga_grid].
  - apply in_grid_spec in Gx. cbn [vga_grid gw gh] in Gx.
    destruct (N.eqb_spec (cell_idx c cx cy) (cell_idx c x y)) as [Heq|Hne].
    + apply cell_idx_inj in Heq; try lia. destruct Heq; subst. now rewrite !N.eqb_refl.
    + destruct (N.eqb_spec cx x); destruct (N.eqb_spec cy y); cbn [andb]; auto. subst. congruence.
  - reflexivity.
Qed.

Lemma vga_fill_refines c m x y width height fg bg :
  vga_wf c m ->
  exists m', vga_fill c m x y width height fg bg = Ok m' /\ vga_wf c m' /\
    grid_eq (vga_grid c m') (g_fill (vga_grid c m) x y width height (N.lor (attr16 bg fg) vga_clearChar)).
Proof.
  intros Hwf. destruct (vga_fill_spec c m x y width height fg bg Hwf) as [m' [E [E1 E2]]].
  exists m'. split; auto. split; [eapply vga_wf_keep; eauto|].
  unfold grid_eq, grid_equiv. cbn [g_fill gw gh vga_grid gcell]. repeat split; auto.
Qed.

Lemma vga_scroll_refines c m dir d lines :
  vga_wf c m -> lines < two32 -> dir_of dir = Some d ->
  exists m', vga_scroll c m dir lines = Ok m' /\ vga_wf c m' /\
    grid_eq (vga_grid c m') (g_scroll (vga_grid c m) d lines (gcell (vga_grid c m))).
Proof.
  intros Hwf Hl Hd. destruct (vga_scroll_spec c m dir lines Hwf Hl) as [m' [E [E1 E2]]].
  exists m'. split; auto. split; [eapply vga_wf_keep; eauto|]. rewrite Hd in E2.
  pose proof Hwf as [H1 [H2 [H3 H4]]].
  unfold grid_eq, grid_equiv.
  destruct (g_scroll_dims (vga_grid c m) d lines (gcell (vga_grid c m))) as [D1 D2]. rewrite D1, D2.
  repeat split; auto.
  intros cx cy G. apply in_grid_spec in G. cbn [vga_grid gw gh] in G.
  cbn [vga_grid gcell]. rewrite E2. unfold g_scroll.
  destruct (scroll_ok (vga_grid c m) lines) eqn:So; [|reflexivity].
  unfold scroll_ok in So. cbn [vga_grid gh] in So. cbn [gcell gh vga_grid].
  unfold vga_scrolled, cell_idx.
  assert (Hb: cx - 1 < vw c) by lia.
  destruct d.
  - pose proof (row_lt (vw c) (cy - 1) (cx - 1) (vh c - lines) Hb) as R.
    destruct (N.ltb_spec ((cy - 1) * vw c + (cx - 1)) ((vh c - lines) * vw c)) as [L|L];
      destruct (N.leb_spec (cy + lines) (vh c)) as [L'|L']; try lia; auto.
    f_equal. replace (cy + lines - 1) with (cy - 1 + lines) by lia. lia.
  - pose proof (row_le (vw c) (cy - 1) (cx - 1) lines Hb) as R.
    pose proof (row_lt (vw c) (cy - 1) (cx - 1) (vh c) Hb) as R'.
    destruct (N.leb_spec (lines * vw c) ((cy - 1) * vw c + (cx - 1))) as [L|L];
      destruct (N.ltb_spec ((cy - 1) * vw c + (cx - 1)) (vh c * vw c)) as [L2|L2];
      destruct (N.ltb_spec lines cy) as [L'|L']; cbn [andb]; try lia; auto.
    f_equal. replace (cy - lines - 1) with (cy - 1 - lines) by lia.
    assert (Hm: lines * vw c <= (cy - 1) * vw c) by (apply N.mul_le_mono_r; lia).
    rewrite (N.mul_sub_distr_r (cy - 1) lines (vw c)). clear - Hm. lia.
Qed.
