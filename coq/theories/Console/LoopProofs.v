(** The fuelled while-combinator: binary fuel = unary fuel, and the invariant rule used for every Go
    loop of the console models. *)
From Coq Require Import NArith PArith Arith Lia.
From FF Require Import Lib.Word Console.Loop.

Section WhileFacts.
  Context {S : Type}.
  Variable step : S -> sres S.

  Lemma while_nat_add a b s :
    while_nat step (a + b) s = match while_nat step a s with Next s' => while_nat step b s' | r => r end.
  Proof.
    revert s. induction a as [|a IH]; intros s; cbn; [reflexivity|].
    destruct (step s); auto.
  Qed.

  Lemma whileP_nat p s : whileP step p s = while_nat step (Pos.to_nat p) s.
  Proof.
    revert s. induction p as [p IH|p IH|]; intros s.
    - rewrite Pos2Nat.inj_xI. cbn [whileP while_nat].
      destruct (step s) as [s'| | |]; auto.
      replace (2 * Pos.to_nat p)%nat with (Pos.to_nat p + Pos.to_nat p)%nat by lia.
      rewrite while_nat_add, <- IH. destruct (whileP step p s'); auto.
    - rewrite Pos2Nat.inj_xO. cbn [whileP].
      replace (2 * Pos.to_nat p)%nat with (Pos.to_nat p + Pos.to_nat p)%nat by lia.
      rewrite while_nat_add, <- IH. destruct (whileP step p s); auto.
    - change (Pos.to_nat 1) with 1%nat. cbn. destruct (step s); auto.
  Qed.

  Lemma while_nat_iter (Inv : nat -> S -> Prop) (n : nat) (s0 : S) :
    Inv O s0 ->
    (forall k s, (k < n)%nat -> Inv k s -> exists s', step s = Next s' /\ Inv (Datatypes.S k) s') ->
    exists s, while_nat step n s0 = Next s /\ Inv n s.
  Proof.
    intros H0 Hstep. induction n as [|n IH]; [exists s0; split; auto|].
    destruct IH as [s [E Hi]]; [intros k s Hk; apply Hstep; lia|].
    destruct (Hstep n s) as [s' [E' Hi']]; [lia|assumption|]. exists s'. split; [|assumption].
    replace (Datatypes.S n) with (n + 1)%nat by lia. rewrite while_nat_add, E. cbn. now rewrite E'.
  Qed.

  (** the invariant rule: [n] iterations keep [Inv], then the loop exits *)
  Lemma while_nat_inv (Inv : nat -> S -> Prop) (n fuel : nat) (s0 : S) :
    Inv O s0 ->
    (forall k s, (k < n)%nat -> Inv k s -> exists s', step s = Next s' /\ Inv (Datatypes.S k) s') ->
    (forall s, Inv n s -> step s = Done s) ->
    (n < fuel)%nat ->
    exists s', while_nat step fuel s0 = Done s' /\ Inv n s'.
  Proof.
    intros H0 Hstep Hexit Hfuel. destruct (while_nat_iter Inv n s0 H0 Hstep) as [s [E Hi]].
    exists s. split; [|assumption].
    replace fuel with (n + Datatypes.S (fuel - Datatypes.S n))%nat by lia.
    rewrite while_nat_add, E. cbn. now rewrite (Hexit s Hi).
  Qed.

  (** the same when the body panics in iteration [n] *)
  Lemma while_nat_inv_fail (Inv : nat -> S -> Prop) (n fuel : nat) (s0 : S) (Q : S -> Prop) :
    Inv O s0 ->
    (forall k s, (k < n)%nat -> Inv k s -> exists s', step s = Next s' /\ Inv (Datatypes.S k) s') ->
    (forall s, Inv n s -> exists s', step s = Fail s' /\ Q s') ->
    (n < fuel)%nat ->
    exists s', while_nat step fuel s0 = Fail s' /\ Q s'.
  Proof.
    intros H0 Hstep Hexit Hfuel. destruct (while_nat_iter Inv n s0 H0 Hstep) as [s [E Hi]].
    destruct (Hexit s Hi) as [s' [E' HQ]]. exists s'. split; [|assumption].
    replace fuel with (n + Datatypes.S (fuel - Datatypes.S n))%nat by lia.
    rewrite while_nat_add, E. cbn. now rewrite E'.
  Qed.
End WhileFacts.

(** a loop over a 32-bit counter has enough fuel *)
Lemma fuel32_enough (n : N) : (n <= two32)%N -> (N.to_nat n < Pos.to_nat fuel32)%nat.
Proof.
  intros H. unfold two32 in H. unfold fuel32. lia.
Qed.

(** the form used in the models: [whileP step fuel32], the iterations counted in [N] *)
Lemma whileP_inv {S} (step : S -> sres S) (Inv : N -> S -> Prop) (n : N) (s0 : S) :
  (n <= two32)%N ->
  Inv 0%N s0 ->
  (forall k s, (k < n)%N -> Inv k s -> exists s', step s = Next s' /\ Inv (k + 1)%N s') ->
  (forall s, Inv n s -> step s = Done s) ->
  exists s', whileP step fuel32 s0 = Done s' /\ Inv n s'.
Proof.
  intros Hn H0 Hs He. rewrite whileP_nat. rewrite <- (N2Nat.id n) in Hs, He |- *.
  apply (while_nat_inv step (fun k => Inv (N.of_nat k))); auto; [|now apply fuel32_enough].
  intros k s Hk Hi. rewrite Nat2N.inj_succ, <- N.add_1_r. apply Hs; [lia|assumption].
Qed.
