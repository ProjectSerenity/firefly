(** Derived statements of property C19, assembled from the per-operation proofs. *)
From Coq Require Import NArith ZArith PArith Arith Bool List Lia.
From Coq Require Import ZifyBool ZifyN ZifyNat.
From FF Require Import Lib.Word Gen.Consts_device_video_console.
From FF Require Import Console.Mem Console.MemProofs Console.Loop Console.LoopProofs Console.Ops Console.OpsProofs.
From FF Require Import Console.Grid Console.Vga Console.VgaProofs Console.Vesa Console.VesaSpec Console.VesaProofs.
From FF Require Import Console.VesaFillProofs Console.VesaScrollProofs Console.VesaWriteProofs.
Import ListNotations.
Local Open Scope N_scope.

(** ---- text mode: the value of a cell for the 16 colours ---- *)
(** [a << n | b] is a sum when [b] fits into the [n] low bits: the two have no bit in common *)
Lemma lor_shifted a b n : b < 2 ^ n -> N.lor (a * 2 ^ n) b = a * 2 ^ n + b.
Proof.
  intros Hb. rewrite <- N.lxor_lor, <- N.add_nocarry_lxor; auto; apply N.bits_inj_0; intros i;
    rewrite N.land_spec, <- N.shiftl_mul_pow2.
  all: destruct (N.lt_ge_cases i n) as [Hi|Hi];
    [rewrite N.shiftl_spec_low by exact Hi; reflexivity|].
  all: rewrite <- (N.mod_small b (2 ^ n)) by exact Hb; rewrite N.mod_pow2_bits_high by exact Hi; apply andb_false_r.
Qed.

Lemma attr16_value bg fg : bg <= 15 -> fg <= 15 -> attr16 bg fg = (bg * 16 + fg) * 256.
Proof.
  intros Hb Hf. unfold attr16, w16. rewrite !N.shiftl_mul_pow2.
  rewrite (N.mod_small (bg * 2 ^ 4)) by (change (2 ^ 4) with 16; unfold two16; lia).
  rewrite (lor_shifted bg fg 4) by (change (2 ^ 4) with 16; lia).
  change (2 ^ 4) with 16. change (2 ^ 8) with 256. apply N.mod_small. unfold two16. lia.
Qed.

(** colours 0..15, any character: the cell is ((bg<<4 | fg) << 8) | ch *)
Lemma cell16_value bg fg ch : bg <= 15 -> fg <= 15 -> ch <= 255 -> cell16 bg fg ch = (bg * 16 + fg) * 256 + ch.
Proof.
  intros Hb Hf Hc. unfold cell16. rewrite attr16_value by assumption. apply (lor_shifted _ ch 8). change (2 ^ 8) with 256. lia.
Qed.

Lemma vga_max_colour : vga_maxColorIndex = vga_paletteLen - 1.
Proof. reflexivity. Qed.

Lemma text_colour_in_range dflt v : v <= vga_maxColorIndex -> text_colour dflt v = v.
Proof. intros H. unfold text_colour. destruct (N.ltb_spec vga_maxColorIndex v); auto. lia. Qed.

Lemma text_colour_default dflt v : vga_maxColorIndex < v -> text_colour dflt v = dflt.
Proof. intros H. unfold text_colour. destruct (N.ltb_spec vga_maxColorIndex v); auto. lia. Qed.

(** ---- framebuffer console ---- *)
(** a console built the way the driver builds it satisfies the computed parts of [vesa_wf] *)
Lemma set_font_fields w0 h0 bpp0 pitch0 ci plen p lh f c :
  set_font (if lh =? 0 then new_vesa w0 h0 bpp0 pitch0 ci plen p
            else set_logo_height (new_vesa w0 h0 bpp0 pitch0 ci plen p) lh) f = Some c ->
  lh <= h0 -> h0 < two32 ->
  fnt c = Some f /\ bpp c = bpp0 /\ bytespp c = N.shiftr (w8 (bpp0 + 1)) 3 /\
  pw c = w0 /\ ph c = h0 /\ offsetY c = lh /\ pitch c = pitch0 /\
  wchars c = w0 / f_gw f /\ hchars c = (h0 - lh) / f_gh f /\ pal_len c = plen.
Proof.
  intros H Hl Hh. unfold set_font in H.
  destruct ((f_gw f =? 0) || (f_gh f =? 0)); [discriminate|]. inversion H; subst c; clear H.
  destruct (N.eqb_spec lh 0) as [->|Hne]; cbn; repeat split; auto.
  - rewrite sub32_small by lia. reflexivity.
  - rewrite sub32_small by lia. reflexivity.
Qed.

(** padding bytes and bytes outside the text area: never touched *)
Lemma write_ref_padding c f d m ch x y fgb bgb i : place_of c i = Padding -> write_ref c f d m ch x y fgb bgb i = load m i.
Proof. intros H. unfold write_ref. now rewrite H. Qed.

Lemma fill_ref_padding c f d m x y w h bgb i : place_of c i = Padding -> fill_ref c f d m x y w h bgb i = load m i.
Proof. intros H. unfold fill_ref. now rewrite H. Qed.

Lemma scroll_ref_padding c f m sd n i : place_of c i = Padding -> scroll_ref c f m sd n i = load m i.
Proof.
  intros H. unfold scroll_ref, place_of in *.
  destruct (i mod pitch c <? pw c * bytespp c); [discriminate|reflexivity].
Qed.

Lemma write_ref_outside c f d m ch x y fgb bgb i X Y k :
  place_of c i = PixelByte X Y k -> cell_of c f X Y = None -> write_ref c f d m ch x y fgb bgb i = load m i.
Proof. intros H1 H2. unfold write_ref. now rewrite H1, H2. Qed.

Lemma fill_ref_outside c f d m x y w h bgb i X Y k :
  place_of c i = PixelByte X Y k -> cell_of c f X Y = None -> fill_ref c f d m x y w h bgb i = load m i.
Proof. intros H1 H2. unfold fill_ref. now rewrite H1, H2. Qed.

(** the logo rows are not touched by a scroll *)
Lemma scroll_ref_logo c f m sd n i : i / pitch c < offsetY c -> scroll_ref c f m sd n i = load m i.
Proof.
  intros H. unfold scroll_ref.
  destruct (i mod pitch c <? pw c * bytespp c); auto.
  destruct sd.
  - replace (offsetY c <=? i / pitch c) with false by (symmetry; apply N.leb_gt; exact H). reflexivity.
  - replace (offsetY c + n * f_gh f <=? i / pitch c) with false by (symmetry; apply N.leb_gt; lia). reflexivity.
Qed.

Lemma vesa_no_escape c f d m :
  vesa_wf c f d m ->
  (forall ch fg bg x y, ch < 256 -> fg < 256 -> bg < 256 -> x < two32 -> y < two32 ->
     exists m', vesa_write c m ch fg bg x y = Ok m' /\ flen m' = flen m /\
       forall i, place_of c i = Padding -> load m' i = load m i) /\
  (forall x y width height fg bg, bg < 256 ->
     exists m', vesa_fill c m x y width height fg bg = Ok m' /\ flen m' = flen m /\
       forall i, place_of c i = Padding -> load m' i = load m i) /\
  (forall dir lines, lines < two32 ->
     exists m', vesa_scroll c m dir lines = Ok m' /\ flen m' = flen m /\
       forall i, place_of c i = Padding \/ i / pitch c < offsetY c -> load m' i = load m i).
Proof.
  intros W. repeat split.
  - intros ch fg bg x y H1 H2 H3 H4 H5.
    destruct (vesa_write_spec c f d m ch fg bg x y W H1 H2 H3 H4 H5) as [m' [fgb [bgb [_ [_ [E [E1 E2]]]]]]].
    exists m'. repeat split; auto. intros i Hp. rewrite E2.
    destruct (in_grid (vesa_dims c) x y); auto. now apply write_ref_padding.
  - intros x y w h fg bg H1.
    destruct (vesa_fill_spec c f d m x y w h fg bg W H1) as [m' [bgb [_ [E [E1 E2]]]]].
    exists m'. repeat split; auto. intros i Hp. rewrite E2. now apply fill_ref_padding.
  - intros dir lines Hl.
    destruct (vesa_scroll_spec c f d m dir lines W Hl) as [m' [E [E1 E2]]].
    exists m'. repeat split; auto. intros i Hp. rewrite E2.
    destruct (dir_of dir); auto. destruct (scroll_ok (vesa_dims c) lines); auto.
    destruct Hp; [now apply scroll_ref_padding|now apply scroll_ref_logo].
Qed.

(** ---- Scroll at the level of text lines ---- *)
(** pixel row [r] of text line [cy] (1-based) *)
Definition line_row (c : vesa) (f : font) (cy r : N) : N := offsetY c + (cy - 1) * f_gh f + r.

Lemma vesa_scroll_lines c f d m dir lines sd :
  vesa_wf c f d m -> lines < two32 -> dir_of dir = Some sd -> scroll_ok (vesa_dims c) lines = true ->
  exists m', vesa_scroll c m dir lines = Ok m' /\ flen m' = flen m /\
    forall cy r b, 1 <= cy <= hchars c -> r < f_gh f -> b < pw c * bytespp c ->
      match sd with
      | ScrollUp => cy + lines <= hchars c ->
          load m' (line_row c f cy r * pitch c + b) = load m (line_row c f (cy + lines) r * pitch c + b)
      | ScrollDown => lines < cy ->
          load m' (line_row c f cy r * pitch c + b) = load m (line_row c f (cy - lines) r * pitch c + b)
      end.
Proof.
  intros W Hl Hd Hok.
  destruct (vesa_scroll_spec c f d m dir lines W Hl) as [m' [E [E1 E2]]].
  exists m'. repeat split; auto. rewrite Hd, Hok in E2.
  pose proof (geometry_rows c f d m W) as G2.
  pose proof (wf_pitch _ _ _ _ W) as Hpitch. pose proof (wf_gh _ _ _ _ W) as Hgh.
  unfold scroll_ok in Hok. cbn [vesa_dims gh] in Hok.
  intros cy r b Hcy Hr Hb. unfold line_row.
  set (P := pitch c) in *. set (s := bytespp c) in *. set (g := f_gh f) in *.
  assert (HbP: b < P) by lia.
  destruct sd; intros Hmove.
  - set (Y := offsetY c + (cy - 1) * g + r).
    destruct (coord_index P Y b HbP) as [C1 C2].
    rewrite E2. unfold scroll_ref. fold P s g. rewrite C1, C2.
    replace (b <? pw c * s) with true by (symmetry; apply N.ltb_lt; exact Hb).
    assert (Hm: (cy + lines) * g <= hchars c * g) by (apply N.mul_le_mono_r; lia).
    assert (Hd1: (cy + lines - 1) * g + g = (cy + lines) * g).
    { replace (cy + lines) with (cy + lines - 1 + 1) at 2 by lia. lia. }
    assert (Hd2: (cy + lines - 1) * g = (cy - 1) * g + lines * g).
    { replace (cy + lines - 1) with (cy - 1 + lines) by lia. lia. }
    set (T1 := (cy - 1) * g) in *. set (T2 := lines * g) in *. set (T3 := (cy + lines - 1) * g) in *.
    set (T4 := (cy + lines) * g) in *. set (T5 := hchars c * g) in *. clearbody T1 T2 T3 T4 T5.
    replace (offsetY c <=? Y) with true by (symmetry; apply N.leb_le; subst Y; clear; lia).
    replace (Y + T2 <? ph c) with true by (symmetry; apply N.ltb_lt; subst Y; clear - Hm Hd1 Hd2 G2 Hr; lia).
    cbn [andb]. f_equal. f_equal. f_equal. subst Y. clear - Hd2. lia.
  - set (Y := offsetY c + (cy - 1) * g + r).
    destruct (coord_index P Y b HbP) as [C1 C2].
    rewrite E2. unfold scroll_ref. fold P s g. rewrite C1, C2.
    replace (b <? pw c * s) with true by (symmetry; apply N.ltb_lt; exact Hb).
    assert (Hm: cy * g <= hchars c * g) by (apply N.mul_le_mono_r; lia).
    assert (Hd1: (cy - 1) * g + g = cy * g).
    { replace cy with (cy - 1 + 1) at 2 by lia. lia. }
    assert (Hd2: (cy - 1) * g = (cy - lines - 1) * g + lines * g).
    { replace (cy - 1) with (cy - lines - 1 + lines) at 1 by lia. lia. }
    set (T1 := (cy - 1) * g) in *. set (T2 := lines * g) in *. set (T3 := (cy - lines - 1) * g) in *.
    set (T4 := cy * g) in *. set (T5 := hchars c * g) in *. clearbody T1 T2 T3 T4 T5.
    replace (offsetY c + T2 <=? Y) with true by (symmetry; apply N.leb_le; subst Y; clear - Hd2; lia).
    replace (Y <? ph c) with true by (symmetry; apply N.ltb_lt; subst Y; clear - Hm Hd1 G2 Hr; lia).
    cbn [andb]. f_equal. f_equal. f_equal. subst Y. clear - Hd2. lia.
Qed.

(** ---- colour packing: when do the three bytes written per 24/32-bit pixel hold the whole colour? ---- *)
Lemma lor_lt_pow2 a b n : a < 2 ^ n -> b < 2 ^ n -> N.lor a b < 2 ^ n.
Proof.
  intros Ha Hb.
  destruct (N.eq_dec (N.lor a b) 0) as [E|E]; [rewrite E; apply N.neq_0_lt_0, N.pow_nonzero; discriminate|].
  apply N.log2_lt_pow2; [lia|]. rewrite N.log2_lor.
  destruct (N.eq_dec a 0) as [->|Ha0]; destruct (N.eq_dec b 0) as [->|Hb0].
  - cbn in E. congruence.
  - cbn [N.log2]. rewrite N.max_r by apply N.le_0_l. apply N.log2_lt_pow2; lia.
  - cbn [N.log2]. rewrite N.max_l by apply N.le_0_l. apply N.log2_lt_pow2; lia.
  - apply N.max_lub_lt; apply N.log2_lt_pow2; lia.
Qed.

Lemma comp8_lt v size : v < 256 -> size <= 8 -> comp8 v size < 2 ^ size.
Proof.
  intros Hv Hs. unfold comp8.
  replace (w8 (8 + two8 - size)) with (8 - size) by (unfold w8, two8; lia).
  rewrite N.shiftr_div_pow2. apply N.div_lt_upper_bound; [apply N.pow_nonzero; discriminate|].
  rewrite <- N.pow_add_r. replace (8 - size + size) with 8 by lia. exact Hv.
Qed.

Lemma shifted_comp_lt v size pos lim :
  v < 256 -> size <= 8 -> pos + size <= lim -> N.shiftl (comp8 v size) pos < 2 ^ lim.
Proof.
  intros Hv Hs Hl. rewrite N.shiftl_mul_pow2.
  pose proof (comp8_lt v size Hv Hs) as Hc.
  assert (comp8 v size * 2 ^ pos < 2 ^ size * 2 ^ pos).
  { apply N.mul_lt_mono_pos_r; [apply N.neq_0_lt_0, N.pow_nonzero; discriminate|exact Hc]. }
  rewrite <- N.pow_add_r in H.
  assert (2 ^ (size + pos) <= 2 ^ lim) by (apply N.pow_le_mono_r; lia). lia.
Qed.

(** layouts inside the three bytes: nothing of the packed colour is lost *)
Lemma packed24_fits ci r g b :
  r < 256 -> g < 256 -> b < 256 ->
  rsize ci <= 8 -> gsize ci <= 8 -> bsize ci <= 8 ->
  rpos ci + rsize ci <= 24 -> gpos ci + gsize ci <= 24 -> bpos ci + bsize ci <= 24 ->
  packed24 ci (r, g, b) < 2 ^ 24 /\
  packed24 ci (r, g, b) =
    N.lor (N.lor (N.shiftl (comp8 r (rsize ci)) (rpos ci)) (N.shiftl (comp8 g (gsize ci)) (gpos ci)))
          (N.shiftl (comp8 b (bsize ci)) (bpos ci)).
Proof.
  intros Hr Hg Hb S1 S2 S3 P1 P2 P3. unfold packed24.
  pose proof (shifted_comp_lt r _ _ 24 Hr S1 P1) as A1.
  pose proof (shifted_comp_lt g _ _ 24 Hg S2 P2) as A2.
  pose proof (shifted_comp_lt b _ _ 24 Hb S3 P3) as A3.
  assert (H24: 2 ^ 24 < two32) by (unfold two32; cbn; lia).
  rewrite !w32_small by lia. split; [|reflexivity].
  apply lor_lt_pow2; [apply lor_lt_pow2|]; assumption.
Qed.

Lemma packed16_fits ci r g b :
  r < 256 -> g < 256 -> b < 256 ->
  rsize ci <= 8 -> gsize ci <= 8 -> bsize ci <= 8 ->
  rpos ci + rsize ci <= 16 -> gpos ci + gsize ci <= 16 -> bpos ci + bsize ci <= 16 ->
  packed16 ci (r, g, b) < 2 ^ 16 /\
  packed16 ci (r, g, b) =
    N.lor (N.lor (N.shiftl (comp8 r (rsize ci)) (rpos ci)) (N.shiftl (comp8 g (gsize ci)) (gpos ci)))
          (N.shiftl (comp8 b (bsize ci)) (bpos ci)).
Proof.
  intros Hr Hg Hb S1 S2 S3 P1 P2 P3. unfold packed16.
  pose proof (shifted_comp_lt r _ _ 16 Hr S1 P1) as A1.
  pose proof (shifted_comp_lt g _ _ 16 Hg S2 P2) as A2.
  pose proof (shifted_comp_lt b _ _ 16 Hb S3 P3) as A3.
  assert (H16: 2 ^ 16 = two16) by reflexivity.
  unfold w16. rewrite !N.mod_small by lia. split; [|reflexivity].
  apply lor_lt_pow2; [apply lor_lt_pow2|]; assumption.
Qed.
