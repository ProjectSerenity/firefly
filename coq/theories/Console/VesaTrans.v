(** The hand-written model of the VESA framebuffer console (Console/Vesa.v: [fb_offset], [pack_color16/24],
    [vesa_fill], [vesa_scroll], [vesa_write]) IS the Gallina translation that gen/gotrans regenerates from
    kernel/device/video/console/vesa_fb.go on every run (Gen/Trans_console_vesa.v).

    The translation's record has the fields of VesaFbConsole (fb = the []uint8 framebuffer as a list; colorInfo and
    font as "is non-nil"; palette as the list of its RGBA entries); what the code reads through the two pointers -
    cons.font.{GlyphWidth, GlyphHeight, BytesPerRow, Data} and cons.colorInfo.{Red,Green,Blue}{MaskSize,Position} -
    are extra parameters of the translated functions.  [to_gs] maps the model's console [c] and framebuffer
    memory [m] to the record; [font_data f] / the fields of [cinfo c] are those parameters.
    Assumptions that say the data are Go values: palette components and colour-info fields are bytes.
    Loops: the model's on the binary fuel [fuel32]; any translation fuel >= fuel32 reproduces every run of the
    model that ends. *)
From Coq Require Import NArith ZArith PArith String List Bool Lia.
From Coq Require Import ZifyBool ZifyN ZifyNat.
From FF Require Import Lib.Word Lib.GoOps Lib.GoOpsExt Gen.Consts_device_tty Gen.Consts_device_video_console Gen.Trans_console_vesa.
From FF Require Import Console.Mem Console.MemProofs Console.Loop Console.LoopProofs Console.Ops Console.Vga Console.Vesa.
From FF Require Console.VgaTrans.
Import ListNotations.
Local Open Scope N_scope.

Notation fb_list := VgaTrans.fb_list.

(** ---- the abstraction ---- *)
Definition rgba_of (t : N * N * N) : go_color_RGBA := let '(r, g, b) := t in mk_go_color_RGBA r g b 255.

Definition pal_list (c : vesa) : list go_color_RGBA :=
  map (fun k => rgba_of (pal c (N.of_nat k))) (seq 0 (N.to_nat (pal_len c))).

Definition has_font (c : vesa) : bool := match fnt c with Some _ => true | None => false end.

Definition to_gs (c : vesa) (phys : N) (m : fbuf) : go_console_VesaFbConsole :=
  mk_go_console_VesaFbConsole (bpp c) (bytespp c) phys (fb_list m) true (pw c) (ph c) (offsetY c) (pitch c)
    (has_font c) (wchars c) (hchars c) (pal_list c) vesa_defaultFg vesa_defaultBg vesa_clearChar.

Definition font_data (f : font) : list N := map (fun k => f_dat f (N.of_nat k)) (seq 0 (N.to_nat (f_dlen f))).

Ltac ssimp :=
  cbn [to_gs f_VesaFbConsole_bpp f_VesaFbConsole_bytesPerPixel f_VesaFbConsole_fbPhysAddr f_VesaFbConsole_fb
       f_VesaFbConsole_colorInfo f_VesaFbConsole_width f_VesaFbConsole_height f_VesaFbConsole_offsetY f_VesaFbConsole_pitch
       f_VesaFbConsole_font f_VesaFbConsole_widthInChars f_VesaFbConsole_heightInChars f_VesaFbConsole_palette
       f_VesaFbConsole_defaultFg f_VesaFbConsole_defaultBg f_VesaFbConsole_clearChar
       f_RGBA_R f_RGBA_G f_RGBA_B f_RGBA_A].

Lemma fold_fb c phys m l : set_f_VesaFbConsole_fb (to_gs c phys m) (fb_list l) = to_gs c phys l.
Proof. reflexivity. Qed.

Definition sres_ (c : vesa) (phys : N) (r : res) : gres (go_console_VesaFbConsole * unit) :=
  match r with Ok m' => GOk (to_gs c phys m', tt) | Panic _ => GPanic | OutOfFuel _ => GFuel end.

Definition claim (c : vesa) (phys : N) (r : res) (g : gres (go_console_VesaFbConsole * unit)) : Prop :=
  match r with OutOfFuel _ => True | _ => g = sres_ c phys r end.

(** the claim case by case (the form stated in Props/C19_vesa_trans.v) *)
Lemma claim_explicit c phys r g :
  claim c phys r g ->
  match r with Ok m' => g = GOk (to_gs c phys m', tt) | Panic _ => g = GPanic | OutOfFuel _ => True end.
Proof. destruct r; exact (fun H => H). Qed.

(** ---- Dimensions, DefaultColors, fbOffset ---- *)
Theorem dimensions_trans c phys m dim :
  go_console_VesaFbConsole_Dimensions (to_gs c phys m) dim =
  GOk (to_gs c phys m, if dim =? console_Characters then (wchars c, hchars c) else (pw c, ph c)).
Proof. unfold go_console_VesaFbConsole_Dimensions. ssimp. destruct (dim =? console_Characters); reflexivity. Qed.

Theorem defaultColors_trans c phys m :
  go_console_VesaFbConsole_DefaultColors (to_gs c phys m) = GOk (to_gs c phys m, (vesa_defaultFg, vesa_defaultBg)).
Proof. reflexivity. Qed.

Theorem fbOffset_trans c phys m x y :
  go_console_VesaFbConsole_fbOffset (to_gs c phys m) x y = GOk (to_gs c phys m, fb_offset c x y).
Proof. reflexivity. Qed.

(** ---- packColor16 / packColor24 ---- *)
Lemma pal_list_idx c i :
  gidxA (pal_list c) i = if i <? pal_len c then Some (rgba_of (pal c i)) else None.
Proof.
  unfold gidxA, pal_list. destruct (N.ltb_spec i (pal_len c)) as [A|A].
  - rewrite nth_error_map, (nth_error_nth' (seq 0 (N.to_nat (pal_len c))) 0%nat) by (rewrite seq_length; lia).
    rewrite seq_nth by lia. cbn [option_map Nat.add]. rewrite N2Nat.id. reflexivity.
  - apply nth_error_None. rewrite map_length, seq_length. lia.
Qed.

Lemma gw_lor n a b : gw n (N.lor a b) = N.lor (gw n a) (gw n b).
Proof. unfold gw. rewrite <- !N.land_ones. apply N.land_lor_distr_l. Qed.

Lemma gw_idem n a : gw n (gw n a) = gw n a.
Proof. unfold gw. apply N.mod_mod. apply N.pow_nonzero. discriminate. Qed.

Definition bytes_ok (c : vesa) : Prop :=
  (forall i, i < pal_len c -> let '(r, g, b) := pal c i in r < 256 /\ g < 256 /\ b < 256) /\
  rsize (cinfo c) < 256 /\ gsize (cinfo c) < 256 /\ bsize (cinfo c) < 256.

Lemma comp_trans v size : size < 256 -> N.shiftr v (gsub 8 8 size) = comp8 v size.
Proof.
  intros H. unfold comp8, gsub, gw, w8, two8. change (2 ^ 8) with 256. rewrite (N.mod_small size) by exact H. reflexivity.
Qed.

Lemma shiftr_small v k : v < 256 -> N.shiftr v k < 256.
Proof. intros H. rewrite N.shiftr_div_pow2. pose proof (N.pow_nonzero 2 k ltac:(discriminate)). apply N.le_lt_trans with v; [|exact H]. apply N.div_le_upper_bound; [assumption|]. nia. Qed.

Theorem packColor24_trans c phys m idx :
  bytes_ok c ->
  go_console_VesaFbConsole_packColor24 (to_gs c phys m) idx (bsize (cinfo c)) (bpos (cinfo c)) (gsize (cinfo c)) (gpos (cinfo c))
    (rsize (cinfo c)) (rpos (cinfo c)) =
  if idx <? pal_len c then GOk (to_gs c phys m, pack_color24 c idx) else GPanic.
Proof.
  intros (Hp & Hr & Hg & Hb). unfold go_console_VesaFbConsole_packColor24. ssimp. rewrite pal_list_idx.
  destruct (N.ltb_spec idx (pal_len c)) as [Hi|Hi]; [|reflexivity].
  specialize (Hp idx Hi). unfold pack_color24, packed24. destruct (pal c idx) as [[r g] b]. destruct Hp as (H1 & H2 & H3).
  cbn [rgba_of f_RGBA_R f_RGBA_G f_RGBA_B]. rewrite !comp_trans by assumption.
  assert (S : forall v s, v < 256 -> s < 256 -> gw 32 (comp8 v s) = comp8 v s).
  { intros v s Hv Hs. unfold gw. apply N.mod_small. rewrite <- comp_trans by exact Hs.
    apply N.lt_trans with 256; [apply shiftr_small; exact Hv|reflexivity]. }
  rewrite !S by assumption. rewrite N.lor_0_l.
  rewrite !(gw_lor 32), !(gw_idem 32). reflexivity.
Qed.

Theorem packColor16_trans c phys m idx :
  bytes_ok c ->
  go_console_VesaFbConsole_packColor16 (to_gs c phys m) idx (bsize (cinfo c)) (bpos (cinfo c)) (gsize (cinfo c)) (gpos (cinfo c))
    (rsize (cinfo c)) (rpos (cinfo c)) =
  if idx <? pal_len c then GOk (to_gs c phys m, pack_color16 c idx) else GPanic.
Proof.
  intros (Hp & Hr & Hg & Hb). unfold go_console_VesaFbConsole_packColor16. ssimp. rewrite pal_list_idx.
  destruct (N.ltb_spec idx (pal_len c)) as [Hi|Hi]; [|reflexivity].
  specialize (Hp idx Hi). unfold pack_color16, packed16. destruct (pal c idx) as [[r g] b]. destruct Hp as (H1 & H2 & H3).
  cbn [rgba_of f_RGBA_R f_RGBA_G f_RGBA_B]. rewrite !comp_trans by assumption.
  assert (S : forall v s, v < 256 -> s < 256 -> gw 16 (comp8 v s) = comp8 v s).
  { intros v s Hv Hs. unfold gw. apply N.mod_small. rewrite <- comp_trans by exact Hs.
    apply N.lt_trans with 256; [apply shiftr_small; exact Hv|reflexivity]. }
  rewrite !S by assumption. rewrite N.lor_0_l.
  rewrite !(gw_lor 16), !(gw_idem 16). reflexivity.
Qed.

(** ---- fill8 / fill16 / fill24 ---- *)
Notation whileP_sim := VgaTrans.whileP_sim.
Notation step_sim := VgaTrans.step_sim.

Notation gidx_fb := VgaTrans.gidx_fb.
Notation gset_fb := VgaTrans.gset_fb.

(** the stores of one pixel the way the translation nests them: [fb[off] = b0; fb[off+1] = b1; ..], then [kont];
    the generated bodies of fill8/16/24 and write8/16/24 are instances of it up to conversion *)
Fixpoint gstore {R} (v : go_console_VesaFbConsole) (off k : N) (bytes : list N)
                (kont : go_console_VesaFbConsole -> gres R) : gres R :=
  match bytes with
  | [] => kont v
  | b :: rest =>
      match gset (f_VesaFbConsole_fb v) (if k =? 0 then off else gw 32 (off + k)) b with
      | Some t => gstore (set_f_VesaFbConsole_fb v t) off (k + 1) rest kont
      | None => GPanic
      end
  end.

Lemma gstore_trans {R} c phys bytes (kont : go_console_VesaFbConsole -> gres R) : forall m off k,
  gstore (to_gs c phys m) off k bytes kont =
  match store_seq m off k bytes with (m', true) => kont (to_gs c phys m') | (_, false) => GPanic end.
Proof.
  induction bytes as [|b rest IH]; intros m off k; cbn [gstore store_seq]; [reflexivity|].
  ssimp. rewrite gset_fb. change (gw 32 (off + k)) with (add32 off k).
  destruct (store_chk m (if k =? 0 then off else add32 off k) b); cbn [option_map]; [|reflexivity].
  rewrite fold_fb. apply IH.
Qed.

(** fill8/16/24: the pixel loop stores [bytes] and advances by [stp]; one iteration of the rows loop = [fill_row_step] *)
Section FillRows.
  Variables (c : vesa) (phys : N) (fuel : nat) (span step : N) (bytes : list N).
  Variables (bound : N -> go_console_VesaFbConsole -> N) (stp : go_console_VesaFbConsole -> N).
  Hypothesis Hfuel : (Pos.to_nat fuel32 <= fuel)%nat.
  Hypothesis Hbound : forall rowoff m, bound rowoff (to_gs c phys m) = add32 rowoff span.
  Hypothesis Hstp : forall m, stp (to_gs c phys m) = step.
  Let RelI := fun (s : fbuf * N) (t : go_console_VesaFbConsole * N) => t = (to_gs c phys (fst s), snd s).

  Definition gstepI (rowoff : N) (t : go_console_VesaFbConsole * N)
    : gres (gctl (go_console_VesaFbConsole * N) (go_console_VesaFbConsole * unit)) :=
    let '(v_cons, v_fbOffset) := t in
    if v_fbOffset <? bound rowoff v_cons
    then gstore v_cons v_fbOffset 0 bytes (fun v => GOk (GNext (v, gw 32 (v_fbOffset + stp v))))
    else GOk (GBreak (v_cons, v_fbOffset)).

  Lemma fill_px_sim rowoff : step_sim (fill_px_step (add32 rowoff span) step bytes) (gstepI rowoff) RelI.
  Proof.
    intros [m1 off] t ->. cbn [fst snd]. unfold fill_px_step, gstepI. rewrite Hbound.
    destruct (off <? add32 rowoff span); [|eexists; split; reflexivity].
    rewrite gstore_trans. destruct (store_seq m1 off 0 bytes) as [m2 [|]]; [|reflexivity].
    rewrite Hstp. eexists; split; reflexivity.
  Qed.

  Definition gstepO (t : go_console_VesaFbConsole * N * N) : gres (gctl (go_console_VesaFbConsole * N * N) (go_console_VesaFbConsole * unit)) :=
    let '(v_cons, v_fbRowOffset, v_pH) := t in
    if 0 <? v_pH
    then match gloop fuel (gstepI v_fbRowOffset) (v_cons, v_fbRowOffset) with
         | GOk (inl (v_cons0, _)) =>
             GOk (GNext (v_cons0, gw 32 (v_fbRowOffset + f_VesaFbConsole_pitch v_cons0), gsub 32 v_pH 1))
         | GOk (inr r) => GOk (GRet r)
         | GPanic => GPanic
         | GFuel => GFuel
         end
    else GOk (GBreak (v_cons, v_fbRowOffset, v_pH)).

  Lemma fill_rows m rows row :
    claim c phys (res_of_loop (fun s => fst (fst s)) (whileP (fill_row_step (pitch c) span step bytes) fuel32 (m, rows, row)))
          (match gloop fuel gstepO (to_gs c phys m, row, rows) with
           | GOk (inl (v_cons, _, _)) => GOk (v_cons, tt)
           | GOk (inr r) => GOk r
           | GPanic => GPanic
           | GFuel => GFuel
           end).
  Proof.
    set (RelO := fun (s : fbuf * N * N) (t : go_console_VesaFbConsole * N * N) =>
                   t = (to_gs c phys (fst (fst s)), snd s, snd (fst s))).
    assert (HsO : step_sim (fill_row_step (pitch c) span step bytes) gstepO RelO).
    { intros [[m0 rws] rowoff] t ->. cbn [fst snd]. unfold fill_row_step, gstepO.
      destruct (0 <? rws); [|eexists; split; reflexivity].
      pose proof (whileP_sim (fill_px_step (add32 rowoff span) step bytes) (gstepI rowoff) RelI (fill_px_sim rowoff)
                    (m0, rowoff) (to_gs c phys m0, rowoff) fuel eq_refl Hfuel) as Sim.
      revert Sim. destruct (whileP (fill_px_step (add32 rowoff span) step bytes) fuel32 (m0, rowoff)) as [[m' o']|[m' o']|[m' o']|[m' o']];
        intros Sim; try exact I.
      - destruct Sim as (t' & E & HR). unfold RelI in HR. subst t'. rewrite E. cbv beta iota. ssimp.
        eexists; split; reflexivity.
      - rewrite Sim. reflexivity. }
    pose proof (whileP_sim (fill_row_step (pitch c) span step bytes) gstepO RelO HsO (m, rows, row) (to_gs c phys m, row, rows) fuel
                  eq_refl Hfuel) as Sim.
    revert Sim. destruct (whileP (fill_row_step (pitch c) span step bytes) fuel32 (m, rows, row)) as [s'|s'|s'|s'];
      intros Sim; cbn [res_of_loop claim]; try exact I.
    - destruct Sim as (t' & E & HR). unfold RelO in HR. subst t'. rewrite E. reflexivity.
    - rewrite Sim. reflexivity.
  Qed.
End FillRows.

Lemma add32_w32_r a b : add32 a (w32 b) = add32 a b.
Proof. unfold add32, w32, two32. rewrite N.add_mod_idemp_r by discriminate. reflexivity. Qed.

(** (a notation, not a definition: the kernel must never have to unfold a constant to find a [whileP .. fuel32 ..] -
    comparing two such stuck loops structurally is exponential in the 33 bits of the fuel) *)
Notation fill_model c m d pX pY pW pH bytes :=
  (res_of_loop (fun s => fst (fst s))
    (whileP (fill_row_step (pitch c) (mul32 pW (px_step c d)) (px_step c d) bytes) fuel32 (m, pH, fb_offset c pX pY))).

Theorem fill8_trans c phys m pX pY pW pH bg fuel :
  (Pos.to_nat fuel32 <= fuel)%nat ->
  claim c phys (fill_model c m D8 pX pY pW pH [bg]) (go_console_VesaFbConsole_fill8 fuel (to_gs c phys m) pX pY pW pH bg).
Proof.
  intros Hfuel. cbv delta [go_console_VesaFbConsole_fill8]. cbv beta zeta. rewrite fbOffset_trans. cbv beta iota zeta.
  cbn [px_step].
  refine (fill_rows c phys fuel (mul32 pW 1) 1 [bg] (fun rowoff _ => gw 32 (rowoff + pW)) (fun _ => 1) Hfuel _ (fun _ => eq_refl) m pH _).
  intros rowoff _. unfold mul32. now rewrite N.mul_1_r, add32_w32_r.
Qed.

(** 16 and 24/32 bits per pixel: the bound and the step read [cons.bytesPerPixel] *)
Definition fill_rows_bpp c phys fuel pW bytes (Hfuel : (Pos.to_nat fuel32 <= fuel)%nat) :=
  fill_rows c phys fuel (mul32 pW (bytespp c)) (bytespp c) bytes
    (fun rowoff v => gw 32 (rowoff + gw 32 (pW * f_VesaFbConsole_bytesPerPixel v))) f_VesaFbConsole_bytesPerPixel
    Hfuel (fun _ _ => eq_refl) (fun _ => eq_refl).

Theorem fill16_trans c phys m pX pY pW pH bg fuel :
  bytes_ok c -> (Pos.to_nat fuel32 <= fuel)%nat ->
  match pixel_bytes c D16 bg with
  | Some bytes =>
      claim c phys (fill_model c m D16 pX pY pW pH bytes)
        (go_console_VesaFbConsole_fill16 fuel (to_gs c phys m) pX pY pW pH bg (bsize (cinfo c)) (bpos (cinfo c)) (gsize (cinfo c))
           (gpos (cinfo c)) (rsize (cinfo c)) (rpos (cinfo c)))
  | None =>
      go_console_VesaFbConsole_fill16 fuel (to_gs c phys m) pX pY pW pH bg (bsize (cinfo c)) (bpos (cinfo c)) (gsize (cinfo c))
        (gpos (cinfo c)) (rsize (cinfo c)) (rpos (cinfo c)) = GPanic
  end.
Proof.
  intros Hb Hfuel. cbv delta [go_console_VesaFbConsole_fill16]. cbv beta zeta.
  rewrite (packColor16_trans c phys m bg Hb). cbn [pixel_bytes].
  destruct (bg <? pal_len c); [|reflexivity]. cbv beta iota zeta. rewrite fbOffset_trans. cbv beta iota zeta.
  cbn [px_step]. exact (fill_rows_bpp c phys fuel pW (pack_color16 c bg) Hfuel m pH _).
Qed.

Theorem fill24_trans c phys m pX pY pW pH bg fuel :
  bytes_ok c -> (Pos.to_nat fuel32 <= fuel)%nat ->
  match pixel_bytes c D24 bg with
  | Some bytes =>
      claim c phys (fill_model c m D24 pX pY pW pH bytes)
        (go_console_VesaFbConsole_fill24 fuel (to_gs c phys m) pX pY pW pH bg (bsize (cinfo c)) (bpos (cinfo c)) (gsize (cinfo c))
           (gpos (cinfo c)) (rsize (cinfo c)) (rpos (cinfo c)))
  | None =>
      go_console_VesaFbConsole_fill24 fuel (to_gs c phys m) pX pY pW pH bg (bsize (cinfo c)) (bpos (cinfo c)) (gsize (cinfo c))
        (gpos (cinfo c)) (rsize (cinfo c)) (rpos (cinfo c)) = GPanic
  end.
Proof.
  intros Hb Hfuel. cbv delta [go_console_VesaFbConsole_fill24]. cbv beta zeta.
  rewrite (packColor24_trans c phys m bg Hb). cbn [pixel_bytes].
  destruct (bg <? pal_len c); [|reflexivity]. cbv beta iota zeta. rewrite fbOffset_trans. cbv beta iota zeta.
  cbn [px_step]. exact (fill_rows_bpp c phys fuel pW (pack_color24 c bg) Hfuel m pH _).
Qed.

(** ---- Fill ---- *)
(** the font parameters: the fields of the font the console holds (anything when it holds none) *)
Definition fgw (c : vesa) : N := match fnt c with Some f => f_gw f | None => 0 end.
Definition fgh (c : vesa) : N := match fnt c with Some f => f_gh f | None => 0 end.

Lemma gw32_mul a b : gw 32 (a * b) = mul32 a b. Proof. reflexivity. Qed.
Lemma gw32_add a b : gw 32 (a + b) = add32 a b. Proof. reflexivity. Qed.
Lemma gsub32_sub a b : gsub 32 a b = sub32 a b. Proof. reflexivity. Qed.
Lemma clamp_eq v w : (if v =? 0 then gw 32 1 else if w <=? v then w else v) = clamp_org v w. Proof. reflexivity. Qed.
Lemma clip_eq ext org w : (if add32 (sub32 w org) 1 <? ext then add32 (sub32 w org) 1 else ext) = clip_ext ext org w. Proof. reflexivity. Qed.

(** NB: rewriting, not [change]: the kernel re-checks a [change] of gw into w32 at every occurrence *)
Ltac w32fix := repeat match goal with
  | |- context [gsub 32 ?a ?b] => rewrite (gsub32_sub a b)
  | |- context [gw 32 (?a * ?b)] => rewrite (gw32_mul a b)
  | |- context [gw 32 (?a + ?b)] => rewrite (gw32_add a b)
  end.

Lemma claim_bind c phys r (g : gres (go_console_VesaFbConsole * unit)) :
  claim c phys r g ->
  claim c phys r (match g with GOk (v, _) => GOk (v, tt) | GPanic => GPanic | GFuel => GFuel end).
Proof. destruct r; cbn [claim]; intros H; try exact I; rewrite H; reflexivity. Qed.

Lemma claim_panic c phys m (g : gres (go_console_VesaFbConsole * unit)) :
  g = GPanic -> claim c phys (Panic m) (match g with GOk (v, _) => GOk (v, tt) | GPanic => GPanic | GFuel => GFuel end).
Proof. intros ->. reflexivity. Qed.

Theorem fill_is_translation c phys m x y width height fg bg fuel :
  bytes_ok c -> (Pos.to_nat fuel32 <= fuel)%nat ->
  claim c phys (vesa_fill c m x y width height fg bg)
    (go_console_VesaFbConsole_Fill fuel (to_gs c phys m) x y width height fg bg (bsize (cinfo c)) (bpos (cinfo c)) (gsize (cinfo c))
       (gpos (cinfo c)) (rsize (cinfo c)) (rpos (cinfo c)) (fgh c) (fgw c)).
Proof.
  intros Hb Hfuel. cbv delta [go_console_VesaFbConsole_Fill vesa_fill]. cbv beta zeta. ssimp.
  unfold has_font, fgw, fgh. destruct (fnt c) as [f|]; cbn [negb]; [|reflexivity].
  rewrite !clamp_eq.
  set (x' := clamp_org x (wchars c)). set (y' := clamp_org y (hchars c)).
  w32fix. rewrite !clip_eq.
  set (width' := clip_ext width x' (wchars c)). set (height' := clip_ext height y' (hchars c)).
  set (pX := mul32 (sub32 x' 1) (f_gw f)). set (pY := mul32 (sub32 y' 1) (f_gh f)).
  set (pW := mul32 width' (f_gw f)). set (pH := mul32 height' (f_gh f)).
  unfold depth_of.
  destruct (bpp c =? 8).
  { cbn [pixel_bytes]. apply claim_bind. exact (fill8_trans c phys m pX pY pW pH bg fuel Hfuel). }
  destruct ((bpp c =? 15) || (bpp c =? 16)).
  { pose proof (fill16_trans c phys m pX pY pW pH bg fuel Hb Hfuel) as T.
    destruct (pixel_bytes c D16 bg) as [bytes|]; [apply claim_bind; exact T|apply claim_panic; exact T]. }
  destruct ((bpp c =? 24) || (bpp c =? 32)); [|reflexivity].
  pose proof (fill24_trans c phys m pX pY pW pH bg fuel Hb Hfuel) as T.
  destruct (pixel_bytes c D24 bg) as [bytes|]; [apply claim_bind; exact T|apply claim_panic; exact T].
Qed.

(** ---- Scroll ---- *)
(** both directions: a loop over rows ([test], [next]) around the copy loop of one row, which starts at
    [first] and reads at [src]; [rstep] is the model's row step of that shape *)
Section CopyRows.
  Variables (c : vesa) (phys : N) (fuel : nat) (rowBytes : N) (src : N -> N).
  Variables (test : N -> bool) (first next : N -> N) (gfirst gnext : go_console_VesaFbConsole -> N -> N).
  Variable rstep : fbuf * N -> sres (fbuf * N).
  Hypothesis Hfuel : (Pos.to_nat fuel32 <= fuel)%nat.
  Hypothesis Hfirst : forall m ro, gfirst (to_gs c phys m) ro = first ro.
  Hypothesis Hnext : forall m ro, gnext (to_gs c phys m) ro = next ro.
  Hypothesis Hrstep : forall m ro, rstep (m, ro) =
    if test ro
    then match whileP (copy_fwd_step (add32 (first ro) rowBytes) src) fuel32 (m, first ro) with
         | Done (m', _) => Next (m', next ro)
         | Fail (m', _) => Fail (m', ro)
         | Next (m', _) | Fuel (m', _) => Fuel (m', ro)
         end
    else Done (m, ro).
  Let St : Type := go_console_VesaFbConsole * N.
  Let Rel := fun (s : fbuf * N) (t : St) => t = (to_gs c phys (fst s), snd s).

  Definition gcopyI (ro : N) (t : St) : gres (gctl St (go_console_VesaFbConsole * unit)) :=
    let '(v_cons, v_i) := t in
    if v_i <? gw 32 (gfirst v_cons ro + rowBytes)
    then match gidx (f_VesaFbConsole_fb v_cons) (src v_i) with
         | None => GPanic
         | Some t4 =>
             match gset (f_VesaFbConsole_fb v_cons) v_i t4 with
             | None => GPanic
             | Some t5 => GOk (GNext (set_f_VesaFbConsole_fb v_cons t5, gw 32 (v_i + 1)))
             end
         end
    else GOk (GBreak (v_cons, v_i)).

  Definition gcopyO (t : St) : gres (gctl St (go_console_VesaFbConsole * unit)) :=
    let '(v_cons, v_rowOffset) := t in
    if test v_rowOffset
    then match gloop fuel (gcopyI v_rowOffset) (v_cons, gfirst v_cons v_rowOffset) with
         | GPanic => GPanic
         | GFuel => GFuel
         | GOk (inr r) => GOk (GRet r)
         | GOk (inl (v_cons0, _)) => GOk (GNext (v_cons0, gnext v_cons0 v_rowOffset))
         end
    else GOk (GBreak (v_cons, v_rowOffset)).

  Lemma copy_rows_sim m r0 :
    claim c phys (res_of_loop fst (whileP rstep fuel32 (m, r0)))
          (match gloop fuel gcopyO (to_gs c phys m, r0) with
           | GPanic => GPanic
           | GFuel => GFuel
           | GOk (inr r) => GOk r
           | GOk (inl (v_cons, _)) => GOk (v_cons, tt)
           end).
  Proof.
    assert (HsI : forall ro, step_sim (copy_fwd_step (add32 (first ro) rowBytes) src) (gcopyI ro) Rel).
    { intros ro [m1 i] t ->. cbn [fst snd]. unfold copy_fwd_step, copy_chk, gcopyI. rewrite Hfirst.
      change (gw 32 (first ro + rowBytes)) with (add32 (first ro) rowBytes).
      destruct (i <? add32 (first ro) rowBytes); [|eexists; split; reflexivity].
      ssimp. rewrite gidx_fb. destruct (load_chk m1 (src i)) as [v|]; [|reflexivity].
      rewrite gset_fb. destruct (store_chk m1 i v) as [m2|]; [|reflexivity].
      cbn [option_map]. rewrite fold_fb. eexists; split; reflexivity. }
    assert (HsO : step_sim rstep gcopyO Rel).
    { intros [m0 ro] t ->. cbn [fst snd]. rewrite Hrstep. unfold gcopyO.
      destruct (test ro); [|eexists; split; reflexivity].
      rewrite Hfirst.
      pose proof (whileP_sim (copy_fwd_step (add32 (first ro) rowBytes) src) (gcopyI ro) Rel (HsI ro)
                    (m0, first ro) (to_gs c phys m0, first ro) fuel eq_refl Hfuel) as Sim.
      revert Sim. destruct (whileP (copy_fwd_step (add32 (first ro) rowBytes) src) fuel32 (m0, first ro))
        as [[m' o']|[m' o']|[m' o']|[m' o']]; intros Sim; try exact I.
      - destruct Sim as (t' & E & HR). unfold Rel in HR. subst t'. rewrite E. cbv beta iota. cbn [fst snd].
        rewrite Hnext. eexists; split; reflexivity.
      - rewrite Sim. reflexivity. }
    pose proof (whileP_sim rstep gcopyO Rel HsO (m, r0) (to_gs c phys m, r0) fuel eq_refl Hfuel) as Sim.
    revert Sim. destruct (whileP rstep fuel32 (m, r0)) as [s'|s'|s'|s']; intros Sim; cbn [res_of_loop claim]; try exact I.
    - destruct Sim as (t' & E & HR). unfold Rel in HR. subst t'. rewrite E. reflexivity.
    - rewrite Sim. reflexivity.
  Qed.
End CopyRows.

Theorem scroll_is_translation c phys m dir lines fuel :
  (Pos.to_nat fuel32 <= fuel)%nat ->
  claim c phys (vesa_scroll c m dir lines) (go_console_VesaFbConsole_Scroll fuel (to_gs c phys m) dir lines (fgh c)).
Proof.
  intros Hfuel. cbv delta [go_console_VesaFbConsole_Scroll vesa_scroll]. cbv beta zeta. ssimp.
  unfold has_font, fgh. destruct (fnt c) as [f|]; cbn [negb orb]; [|reflexivity].
  destruct ((lines =? 0) || (hchars c <? lines)); [reflexivity|].
  rewrite !fbOffset_trans. cbv beta iota zeta. ssimp. w32fix.
  set (lpx := mul32 lines (f_gh f)). set (offset := fb_offset c 0 (sub32 lpx (offsetY c))).
  set (rowBytes := mul32 (pw c) (bytespp c)).
  destruct (dir =? console_ScrollDirUp).
  - set (stop := fb_offset c 0 (sub32 (sub32 (ph c) lpx) (offsetY c))).
    exact (copy_rows_sim c phys fuel rowBytes (fun i => add32 i offset) (fun ro => ro <? stop) (fun ro => ro)
             (fun ro => add32 ro (pitch c)) (fun _ ro => ro) (fun v ro => gw 32 (ro + f_VesaFbConsole_pitch v))
             (scroll_up_row_step c stop rowBytes offset) Hfuel (fun _ _ => eq_refl) (fun _ _ => eq_refl)
             (fun _ _ => eq_refl) m (fb_offset c 0 0)).
  - destruct (dir =? console_ScrollDirDown); [|reflexivity].
    set (start := fb_offset c 0 lpx).
    exact (copy_rows_sim c phys fuel rowBytes (fun i => sub32 i offset) (fun ro => start <? ro)
             (fun ro => sub32 ro (pitch c)) (fun ro => sub32 ro (pitch c))
             (fun v ro => gsub 32 ro (f_VesaFbConsole_pitch v)) (fun v ro => gsub 32 ro (f_VesaFbConsole_pitch v))
             (scroll_down_row_step c start rowBytes offset) Hfuel (fun _ _ => eq_refl) (fun _ _ => eq_refl)
             (fun _ _ => eq_refl) m (fb_offset c 0 (sub32 (ph c) (offsetY c)))).
Qed.

Theorem queries_trans c phys m dim x y :
  go_console_VesaFbConsole_Dimensions (to_gs c phys m) dim =
    GOk (to_gs c phys m, if dim =? console_Characters then (wchars c, hchars c) else (pw c, ph c)) /\
  go_console_VesaFbConsole_DefaultColors (to_gs c phys m) = GOk (to_gs c phys m, (vesa_defaultFg, vesa_defaultBg)) /\
  go_console_VesaFbConsole_fbOffset (to_gs c phys m) x y = GOk (to_gs c phys m, fb_offset c x y).
Proof. split; [apply dimensions_trans|split; [apply defaultColors_trans|apply fbOffset_trans]]. Qed.

Theorem packColor_trans c phys m idx :
  bytes_ok c ->
  go_console_VesaFbConsole_packColor16 (to_gs c phys m) idx (bsize (cinfo c)) (bpos (cinfo c)) (gsize (cinfo c)) (gpos (cinfo c))
    (rsize (cinfo c)) (rpos (cinfo c)) =
    (if idx <? pal_len c then GOk (to_gs c phys m, pack_color16 c idx) else GPanic) /\
  go_console_VesaFbConsole_packColor24 (to_gs c phys m) idx (bsize (cinfo c)) (bpos (cinfo c)) (gsize (cinfo c)) (gpos (cinfo c))
    (rsize (cinfo c)) (rpos (cinfo c)) =
    (if idx <? pal_len c then GOk (to_gs c phys m, pack_color24 c idx) else GPanic).
Proof. intros H. split; [apply packColor16_trans|apply packColor24_trans]; exact H. Qed.

(** ---- write8 / write16 / write24 ---- *)
Lemma font_idx f i : gidx (font_data f) i = if i <? f_dlen f then Some (f_dat f i) else None.
Proof.
  unfold gidx, font_data. destruct (N.ltb_spec i (f_dlen f)) as [A|A].
  - rewrite nth_error_map, (nth_error_nth' (seq 0 (N.to_nat (f_dlen f))) 0%nat) by (rewrite seq_length; lia).
    rewrite seq_nth by lia. cbn [option_map Nat.add]. rewrite N2Nat.id. reflexivity.
  - apply nth_error_None. rewrite map_length, seq_length. lia.
Qed.

(** the model's result of the rows loop of write8/16/24 *)
Notation write_model c f m d pX pY ch fgb bgb :=
  (res_of_loop (fun s => fst (fst (fst s)))
     (whileP (write_row_step c f (px_step c d) fgb bgb) fuel32
        (m, 0, fb_offset c pX pY, mul32 (mul32 ch (f_bpr f)) (f_gh f)))).

(** write8/16/24: the pixel loop stores [fgb] or [bgb] and advances by [stp]; the two loops are
    [write_px_step] / [write_row_step] *)
Section WriteRows.
  Variables (c : vesa) (phys : N) (fuel : nat) (f : font) (step : N) (fgb bgb : list N).
  Variable stp : go_console_VesaFbConsole -> N.
  Hypothesis Hfuel : (Pos.to_nat fuel32 <= fuel)%nat.
  Hypothesis Hstp : forall m, stp (to_gs c phys m) = step.
  Let StI : Type := go_console_VesaFbConsole * N * N * N * N * N.
  Let StO : Type := go_console_VesaFbConsole * N * N * N * N * N * N.
  Let RelW := fun (s : wstate) (t : StI) => let '(m, x, off, mask, foff, row) := s in t = (to_gs c phys m, off, foff, row, mask, x).
  Let RelR := fun (s : fbuf * N * N * N) (t : StO) =>
    let '(m, y, rowoff, foff) := s in exists a b d, t = (to_gs c phys m, a, rowoff, foff, b, d, y).

  Definition gpaint (bytes : list N) (t : StI) : gres (gctl StI (go_console_VesaFbConsole * unit)) :=
    let '(v_cons, v_fbOffset, v_fontOffset, v_fontRowData, v_mask, v_x) := t in
    gstore v_cons v_fbOffset 0 bytes (fun v =>
      GOk (GNext (v, gw 32 (v_fbOffset + stp v), v_fontOffset, v_fontRowData, N.shiftr v_mask 1, gw 32 (v_x + 1)))).

  Definition gwriteI (t : StI) : gres (gctl StI (go_console_VesaFbConsole * unit)) :=
    let '(v_cons, v_fbOffset, v_fontOffset, v_fontRowData, v_mask, v_x) := t in
    if v_x <? f_gw f
    then if v_mask =? 0
         then match gidx (font_data f) (gw 32 (v_fontOffset + 1)) with
              | None => GPanic
              | Some t5 =>
                  if negb (N.land t5 (gw 8 (N.shiftl 1 7)) =? 0)
                  then gpaint fgb (v_cons, v_fbOffset, gw 32 (v_fontOffset + 1), t5, gw 8 (N.shiftl 1 7), v_x)
                  else gpaint bgb (v_cons, v_fbOffset, gw 32 (v_fontOffset + 1), t5, gw 8 (N.shiftl 1 7), v_x)
              end
         else if negb (N.land v_fontRowData v_mask =? 0)
              then gpaint fgb (v_cons, v_fbOffset, v_fontOffset, v_fontRowData, v_mask, v_x)
              else gpaint bgb (v_cons, v_fbOffset, v_fontOffset, v_fontRowData, v_mask, v_x)
    else GOk (GBreak (v_cons, v_fbOffset, v_fontOffset, v_fontRowData, v_mask, v_x)).

  Definition gwriteO (t : StO) : gres (gctl StO (go_console_VesaFbConsole * unit)) :=
    let '(v_cons, v_fbOffset, v_fbRowOffset, v_fontOffset, v_mask, v_x, v_y) := t in
    if v_y <? f_gh f
    then match gidx (font_data f) v_fontOffset with
         | None => GPanic
         | Some t4 =>
             match gloop fuel gwriteI (v_cons, v_fbRowOffset, v_fontOffset, t4, gw 8 (N.shiftl 1 7), gw 32 0) with
             | GPanic => GPanic
             | GFuel => GFuel
             | GOk (inr r) => GOk (GRet r)
             | GOk (inl (v_cons0, v_fbOffset0, v_fontOffset0, _, v_mask0, v_x0)) =>
                 GOk (GNext (v_cons0, v_fbOffset0, gw 32 (v_fbRowOffset + f_VesaFbConsole_pitch v_cons0),
                             gw 32 (v_fontOffset0 + 1), v_mask0, v_x0, gw 32 (v_y + 1)))
             end
         end
    else GOk (GBreak (v_cons, v_fbOffset, v_fbRowOffset, v_fontOffset, v_mask, v_x, v_y)).

  Lemma gpaint_sim bytes m1 x off mask fo row :
    gpaint bytes (to_gs c phys m1, off, fo, row, mask, x) =
    match store_seq m1 off 0 bytes with
    | (m', true) => GOk (GNext (to_gs c phys m', add32 off step, fo, row, N.shiftr mask 1, add32 x 1))
    | (_, false) => GPanic
    end.
  Proof.
    unfold gpaint. rewrite gstore_trans. destruct (store_seq m1 off 0 bytes) as [m' [|]]; [|reflexivity].
    rewrite Hstp. reflexivity.
  Qed.

  Lemma write_rows_sim m row foff :
    claim c phys (res_of_loop (fun s => fst (fst (fst s))) (whileP (write_row_step c f step fgb bgb) fuel32 (m, 0, row, foff)))
          (match gloop fuel gwriteO (to_gs c phys m, 0, row, foff, 0, 0, gw 32 0) with
           | GPanic => GPanic
           | GFuel => GFuel
           | GOk (inr r) => GOk r
           | GOk (inl (v_cons, _, _, _, _, _, _)) => GOk (v_cons, tt)
           end).
  Proof.
    assert (HsI : step_sim (write_px_step f step fgb bgb) gwriteI RelW).
    { intros [[[[[m1 x] off] mask] fo] row0] t' HR. unfold RelW in HR. subst t'. unfold write_px_step, gwriteI.
      destruct (x <? f_gw f); [|eexists; split; reflexivity].
      change (gw 32 (fo + 1)) with (add32 fo 1). change (gw 8 (N.shiftl 1 7)) with 128.
      destruct (mask =? 0); cbn [andb].
      - rewrite font_idx. destruct (add32 fo 1 <? f_dlen f); cbn [negb]; [|reflexivity].
        destruct (N.land (f_dat f (add32 fo 1)) 128 =? 0); cbn [negb]; rewrite gpaint_sim;
          match goal with |- context [store_seq ?a ?b ?d ?e] => destruct (store_seq a b d e) as [m2 [|]] end;
          try reflexivity; eexists; split; reflexivity.
      - destruct (N.land row0 mask =? 0); cbn [negb]; rewrite gpaint_sim;
          match goal with |- context [store_seq ?a ?b ?d ?e] => destruct (store_seq a b d e) as [m2 [|]] end;
          try reflexivity; eexists; split; reflexivity. }
    assert (HsO : step_sim (write_row_step c f step fgb bgb) gwriteO RelR).
    { intros [[[m0 y] rowoff] fo] t HR. unfold RelR in HR. destruct HR as (a & b & d & ->). unfold write_row_step, gwriteO.
      destruct (y <? f_gh f); [|eexists; split; [reflexivity|exists a, b, d; reflexivity]].
      rewrite font_idx. destruct (fo <? f_dlen f); cbn [negb]; [|reflexivity].
      pose proof (whileP_sim (write_px_step f step fgb bgb) gwriteI RelW HsI
                    (m0, 0, rowoff, 128, fo, f_dat f fo) (to_gs c phys m0, rowoff, fo, f_dat f fo, 128, 0) fuel eq_refl Hfuel) as Sim.
      change (gw 8 (N.shiftl 1 7)) with 128. change (gw 32 0) with 0.
      revert Sim. destruct (whileP (write_px_step f step fgb bgb) fuel32 (m0, 0, rowoff, 128, fo, f_dat f fo))
        as [s'|s'|s'|s']; intros Sim; try exact I.
      - destruct s' as [[[[[m' x'] o'] k'] fo'] r']. destruct Sim as (t' & E & HR). unfold RelW in HR. subst t'. rewrite E.
        cbv beta iota. ssimp. eexists; split; [reflexivity|]. exists o', k', x'. reflexivity.
      - rewrite Sim. reflexivity. }
    pose proof (whileP_sim (write_row_step c f step fgb bgb) gwriteO RelR HsO
                  (m, 0, row, foff) (to_gs c phys m, 0, row, foff, 0, 0, 0) fuel
                  (ex_intro _ 0 (ex_intro _ 0 (ex_intro _ 0 eq_refl))) Hfuel) as Sim.
    change (gw 32 0) with 0.
    revert Sim. destruct (whileP (write_row_step c f step fgb bgb) fuel32 (m, 0, row, foff)) as [s'|s'|s'|s'];
      intros Sim; cbn [res_of_loop claim]; try exact I.
    - destruct s' as [[[m' y'] ro'] fo']. destruct Sim as (t' & E & (a & b & d & HR)). subst t'. rewrite E. reflexivity.
    - rewrite Sim. reflexivity.
  Qed.
End WriteRows.

Lemma gw32_of_byte ch : ch < 256 -> gw 32 ch = ch.
Proof. intros H. unfold gw. apply N.mod_small. change (2 ^ 32) with 4294967296. lia. Qed.

Theorem write8_trans c phys m f ch fg bg pX pY fuel :
  ch < 256 -> (Pos.to_nat fuel32 <= fuel)%nat ->
  claim c phys (write_model c f m D8 pX pY ch [fg] [bg])
    (go_console_VesaFbConsole_write8 fuel (to_gs c phys m) ch fg bg pX pY (f_bpr f) (font_data f) (f_gh f) (f_gw f)).
Proof.
  intros Hch Hfuel. cbv delta [go_console_VesaFbConsole_write8]. cbv beta zeta. rewrite fbOffset_trans. cbv beta iota zeta.
  rewrite (gw32_of_byte ch Hch). cbn [px_step].
  exact (write_rows_sim c phys fuel f 1 [fg] [bg] (fun _ => 1) Hfuel (fun _ => eq_refl) m _ _).
Qed.

Theorem write16_trans c phys m f ch fg bg pX pY fuel :
  ch < 256 -> bytes_ok c -> (Pos.to_nat fuel32 <= fuel)%nat ->
  match pixel_bytes c D16 fg, pixel_bytes c D16 bg with
  | Some fgb, Some bgb =>
      claim c phys (write_model c f m D16 pX pY ch fgb bgb) (go_console_VesaFbConsole_write16 fuel (to_gs c phys m) ch fg bg pX pY (bsize (cinfo c)) (bpos (cinfo c)) (gsize (cinfo c)) (gpos (cinfo c)) (rsize (cinfo c)) (rpos (cinfo c)) (f_bpr f) (font_data f) (f_gh f) (f_gw f))
  | _, _ => go_console_VesaFbConsole_write16 fuel (to_gs c phys m) ch fg bg pX pY (bsize (cinfo c)) (bpos (cinfo c)) (gsize (cinfo c)) (gpos (cinfo c)) (rsize (cinfo c)) (rpos (cinfo c)) (f_bpr f) (font_data f) (f_gh f) (f_gw f) = GPanic
  end.
Proof.
  intros Hch Hb Hfuel. cbv delta [go_console_VesaFbConsole_write16]. cbv beta zeta. rewrite fbOffset_trans. cbv beta iota zeta.
  rewrite (packColor16_trans c phys m fg Hb). cbn [pixel_bytes].
  destruct (fg <? pal_len c); [|reflexivity]. cbv beta iota zeta.
  rewrite (packColor16_trans c phys m bg Hb).
  destruct (bg <? pal_len c); [|reflexivity]. cbv beta iota zeta.
  rewrite (gw32_of_byte ch Hch). cbn [px_step].
  exact (write_rows_sim c phys fuel f (bytespp c) (pack_color16 c fg) (pack_color16 c bg) f_VesaFbConsole_bytesPerPixel
           Hfuel (fun _ => eq_refl) m _ _).
Qed.

Theorem write24_trans c phys m f ch fg bg pX pY fuel :
  ch < 256 -> bytes_ok c -> (Pos.to_nat fuel32 <= fuel)%nat ->
  match pixel_bytes c D24 fg, pixel_bytes c D24 bg with
  | Some fgb, Some bgb =>
      claim c phys (write_model c f m D24 pX pY ch fgb bgb) (go_console_VesaFbConsole_write24 fuel (to_gs c phys m) ch fg bg pX pY (bsize (cinfo c)) (bpos (cinfo c)) (gsize (cinfo c)) (gpos (cinfo c)) (rsize (cinfo c)) (rpos (cinfo c)) (f_bpr f) (font_data f) (f_gh f) (f_gw f))
  | _, _ => go_console_VesaFbConsole_write24 fuel (to_gs c phys m) ch fg bg pX pY (bsize (cinfo c)) (bpos (cinfo c)) (gsize (cinfo c)) (gpos (cinfo c)) (rsize (cinfo c)) (rpos (cinfo c)) (f_bpr f) (font_data f) (f_gh f) (f_gw f) = GPanic
  end.
Proof.
  intros Hch Hb Hfuel. cbv delta [go_console_VesaFbConsole_write24]. cbv beta zeta. rewrite fbOffset_trans. cbv beta iota zeta.
  rewrite (packColor24_trans c phys m fg Hb). cbn [pixel_bytes].
  destruct (fg <? pal_len c); [|reflexivity]. cbv beta iota zeta.
  rewrite (packColor24_trans c phys m bg Hb).
  destruct (bg <? pal_len c); [|reflexivity]. cbv beta iota zeta.
  rewrite (gw32_of_byte ch Hch). cbn [px_step].
  exact (write_rows_sim c phys fuel f (bytespp c) (pack_color24 c fg) (pack_color24 c bg) f_VesaFbConsole_bytesPerPixel
           Hfuel (fun _ => eq_refl) m _ _).
Qed.

(** ---- Write ---- *)
Definition fbpr (c : vesa) : N := match fnt c with Some f => f_bpr f | None => 0 end.
Definition fdata (c : vesa) : list N := match fnt c with Some f => font_data f | None => [] end.

Theorem write_is_translation c phys m ch fg bg x y fuel :
  ch < 256 -> bytes_ok c -> (Pos.to_nat fuel32 <= fuel)%nat ->
  claim c phys (vesa_write c m ch fg bg x y)
    (go_console_VesaFbConsole_Write fuel (to_gs c phys m) ch fg bg x y (bsize (cinfo c)) (bpos (cinfo c)) (gsize (cinfo c))
       (gpos (cinfo c)) (rsize (cinfo c)) (rpos (cinfo c)) (fbpr c) (fdata c) (fgh c) (fgw c)).
Proof.
  intros Hch Hb Hfuel. cbv delta [go_console_VesaFbConsole_Write vesa_write]. cbv beta zeta. ssimp.
  unfold has_font, fgw, fgh, fbpr, fdata. destruct (fnt c) as [f|]; cbn [negb]; [|rewrite Bool.orb_true_r; reflexivity].
  rewrite Bool.orb_false_r.
  destruct ((x <? 1) || (wchars c <? x) || (y <? 1) || (hchars c <? y)); [reflexivity|].
  w32fix.
  set (pX := mul32 (sub32 x 1) (f_gw f)). set (pY := mul32 (sub32 y 1) (f_gh f)).
  unfold depth_of.
  destruct (bpp c =? 8).
  { cbn [pixel_bytes]. apply claim_bind. exact (write8_trans c phys m f ch fg bg pX pY fuel Hch Hfuel). }
  destruct ((bpp c =? 15) || (bpp c =? 16)).
  { pose proof (write16_trans c phys m f ch fg bg pX pY fuel Hch Hb Hfuel) as T.
    destruct (pixel_bytes c D16 fg) as [fgb|]; [|apply claim_panic; exact T].
    destruct (pixel_bytes c D16 bg) as [bgb|]; [apply claim_bind; exact T|apply claim_panic; exact T]. }
  destruct ((bpp c =? 24) || (bpp c =? 32)); [|reflexivity].
  pose proof (write24_trans c phys m f ch fg bg pX pY fuel Hch Hb Hfuel) as T.
  destruct (pixel_bytes c D24 fg) as [fgb|]; [|apply claim_panic; exact T].
  destruct (pixel_bytes c D24 bg) as [bgb|]; [apply claim_bind; exact T|apply claim_panic; exact T].
Qed.
