(** Fill of the framebuffer console equals the reference painter (Console/VesaSpec.v).
    [index_coord], [clip_range] and [grid_range] are used by the Write and Scroll proofs as well. *)
From Coq Require Import NArith ZArith PArith Arith Bool List Lia.
From Coq Require Import ZifyBool ZifyN ZifyNat.
From FF Require Import Lib.Word Gen.Consts_device_video_console.
From FF Require Import Console.Mem Console.MemProofs Console.Loop Console.LoopProofs Console.Ops Console.OpsProofs.
From FF Require Import Console.Grid Console.Vga Console.VgaProofs Console.Vesa Console.VesaSpec Console.VesaProofs.
Import ListNotations.
Local Open Scope N_scope.

(** decomposition of a framebuffer index *)
Lemma index_coord c f d m i : vesa_wf c f d m ->
  i = (i / pitch c) * pitch c + i mod pitch c /\ i mod pitch c < pitch c.
Proof.
  intros W. pose proof (geometry_pitch c f d m W) as G3.
  assert (HP: pitch c <> 0) by lia. split; [|now apply N.mod_lt].
  rewrite (N.mul_comm _ (pitch c)). now apply N.div_mod.
Qed.

(** the pixels (on one axis, [g] per cell) of a clamped and clipped range of cells are those whose
    1-based cell coordinate [X / g + 1] satisfies the three conditions of [in_fill] *)
Lemma clip_range g x0 width wc X : 1 <= g -> 1 <= x0 <= wc ->
  ((x0 - 1) * g <=? X) && (X <? (x0 - 1) * g + N.min width (wc - x0 + 1) * g)
  = (x0 <=? X / g + 1) && (X / g + 1 <? x0 + width) && (X / g + 1 <=? wc).
Proof.
  intros Hg Hx. rewrite div_range, clip_cells, andb_assoc by assumption.
  generalize (X / g). intros q. replace (x0 - 1 <=? q) with (x0 <=? q + 1) by lia. reflexivity.
Qed.

Lemma grid_range g n X : 1 <= g -> (X <? n * g) = (X / g + 1 <=? n).
Proof.
  intros Hg. apply eq_iff_eq_true. rewrite N.ltb_lt, N.leb_le, (div_lt_iff g n X Hg). lia.
Qed.

Lemma vesa_fill_spec c f d m x y width height fg bg :
  vesa_wf c f d m -> bg < 256 ->
  exists m' bgb, pixel_bytes c d bg = Some bgb /\
    vesa_fill c m x y width height fg bg = Ok m' /\ flen m' = flen m /\
    forall i, load m' i = fill_ref c f d m x y width height bgb i.
Proof.
  intros W Hbg.
  destruct (vesa_fill_coord c f d m x y width height fg bg W Hbg) as [m' [bgb [P1 [P2 [P3 [P4 P5]]]]]].
  exists m', bgb. repeat split; auto. intros i.
  destruct (index_coord c f d m i W) as [Hi Hb].
  pose proof (geometry_cols c f d m W) as G1. pose proof (geometry_bytespp c f d m W) as G10.
  pose proof (wf_gw _ _ _ _ W) as Hgw. pose proof (wf_gh _ _ _ _ W) as Hgh.
  pose proof (clamp1_range x (wchars c) (wf_w1 _ _ _ _ W)) as Hx.
  pose proof (clamp1_range y (hchars c) (wf_h1 _ _ _ _ W)) as Hy.
  unfold fill_ref, place_of, cell_of, in_fill. cbn [vesa_dims gw gh].
  rewrite Hi at 1. rewrite P5 by assumption. rewrite <- Hi. clear P5 Hi.
  set (x0 := clamp1 x (wchars c)) in *. set (y0 := clamp1 y (hchars c)) in *.
  generalize dependent (i mod pitch c). generalize (i / pitch c). intros Y b Hb.
  rewrite <- (andb_assoc _ ((x0 - 1) * f_gw f <=? b / bytespp c) _), clip_range by lia.
  destruct (N.ltb_spec b (pw c * bytespp c)) as [Hvis|Hpad].
  2:{ (* padding: right of every cell *)
      apply (div_le_iff (bytespp c)) in Hpad; [|lia].
      rewrite <- (grid_range (f_gw f)) by lia.
      replace (b / bytespp c <? wchars c * f_gw f) with false by (generalize dependent (b / bytespp c); intros; lia).
      now rewrite !andb_false_r. }
  rewrite (grid_range (f_gw f)) by lia.
  generalize (b mod bytespp c) (b / bytespp c). intros k X.
  set (Cy := (y0 - 1) * f_gh f). set (Dy := N.min height (hchars c - y0 + 1) * f_gh f).
  destruct (N.leb_spec (offsetY c) Y) as [HYo|HYo].
  2:{ (* logo rows *)
      replace (Cy + offsetY c <=? Y) with false by lia. now rewrite andb_false_r. }
  replace (Cy + offsetY c <=? Y) with (Cy <=? Y - offsetY c) by lia.
  replace (Y <? Cy + offsetY c + Dy) with (Y - offsetY c <? Cy + Dy) by lia.
  replace (Y <? offsetY c + hchars c * f_gh f) with (Y - offsetY c <? hchars c * f_gh f) by lia.
  subst Cy Dy. rewrite clip_range, (grid_range (f_gh f)) by lia.
  (* the pixel belongs to a cell of the grid, or neither side paints it *)
  destruct (X / f_gw f + 1 <=? wchars c) eqn:Ex; [|now rewrite !andb_false_r].
  destruct ((Y - offsetY c) / f_gh f + 1 <=? hchars c) eqn:Ey; [|now rewrite !andb_false_r].
  cbn [andb]. rewrite Ex, Ey, !andb_true_r, (andb_comm (_ && _) (_ && _)), andb_assoc. reflexivity.
Qed.
