(** Proofs about the framebuffer console model (Console/Vesa.v). *)
From Coq Require Import NArith ZArith PArith Arith Bool List Lia.
From Coq Require Import ZifyBool ZifyN ZifyNat.
From FF Require Import Lib.Word Gen.Consts_device_video_console.
From FF Require Import Console.Mem Console.MemProofs Console.Loop Console.LoopProofs Console.Ops Console.OpsProofs.
From FF Require Import Console.Grid Console.Vga Console.VgaProofs Console.Vesa Console.VesaSpec.
Import ListNotations.
Local Open Scope N_scope.

(** ---- geometry in the property's quantifier ---- *)
Record vesa_wf (c : vesa) (f : font) (d : depth) (m : fbuf) : Prop := mkVesaWf {
  wf_font : fnt c = Some f;
  wf_depth : depth_of (bpp c) = Some d;
  wf_bytespp : bytespp c = N.shiftr (w8 (bpp c + 1)) 3;       (* as NewVesaFbConsole computes it *)
  wf_gw : 8 <= f_gw f <= 16;                                   (* font 8..16 pixels wide *)
  wf_gh : 1 <= f_gh f;
  wf_bpr : f_bpr f = (f_gw f + 7) / 8;
  wf_dlen : 256 * f_bpr f * f_gh f <= f_dlen f;               (* 256 glyphs *)
  wf_dlen32 : f_dlen f < two32;
  wf_wchars : wchars c = pw c / f_gw f;                        (* as SetFont computes them *)
  wf_hchars : hchars c = (ph c - offsetY c) / f_gh f;
  wf_w1 : 1 <= wchars c;                                       (* the grid has a cell *)
  wf_h1 : 1 <= hchars c;
  wf_offsetY : offsetY c <= ph c;                              (* the logo fits *)
  wf_pitch : pw c * bytespp c <= pitch c;                      (* pitch >= row bytes *)
  wf_size : ph c * pitch c < two32;
  wf_flen : flen m = ph c * pitch c;                           (* the buffer DriverInit maps *)
  wf_pal : pal_len c = 256
}.

Lemma depth_cases c f d m : vesa_wf c f d m ->
  (d = D8 /\ bytespp c = 1) \/ (d = D16 /\ bytespp c = 2) \/ (d = D24 /\ (bytespp c = 3 \/ bytespp c = 4)).
Proof.
  intros W. pose proof (wf_depth _ _ _ _ W) as Hd. pose proof (wf_bytespp _ _ _ _ W) as Hb.
  unfold depth_of in Hd.
  destruct (N.eqb_spec (bpp c) 8) as [E|_]; [rewrite E in Hb; inversion Hd; subst; left; split; [reflexivity|exact Hb]|].
  destruct (N.eqb_spec (bpp c) 15) as [E|_]; [rewrite E in Hb; inversion Hd; subst; right; left; split; [reflexivity|exact Hb]|].
  destruct (N.eqb_spec (bpp c) 16) as [E|_]; [rewrite E in Hb; inversion Hd; subst; right; left; split; [reflexivity|exact Hb]|].
  cbn [orb] in Hd.
  destruct (N.eqb_spec (bpp c) 24) as [E|_]; [rewrite E in Hb; inversion Hd; subst; right; right; split; [reflexivity|left; exact Hb]|].
  destruct (N.eqb_spec (bpp c) 32) as [E|_]; [rewrite E in Hb; inversion Hd; subst; right; right; split; [reflexivity|right; exact Hb]|].
  discriminate.
Qed.

Lemma px_step_eq c f d m : vesa_wf c f d m -> px_step c d = bytespp c.
Proof. intros W. destruct (depth_cases c f d m W) as [[-> E]|[[-> E]|[-> E]]]; cbn; auto. Qed.

Lemma ncomp_le c f d m : vesa_wf c f d m -> ncomp d <= bytespp c.
Proof. intros W. destruct (depth_cases c f d m W) as [[-> E]|[[-> E]|[-> [E|E]]]]; rewrite E; cbn; lia. Qed.

Lemma pixel_bytes_ok c f d m idx : vesa_wf c f d m -> idx < 256 ->
  exists bytes, pixel_bytes c d idx = Some bytes /\ N.of_nat (length bytes) = ncomp d.
Proof.
  intros W Hi. pose proof (wf_pal _ _ _ _ W) as Hp. unfold pixel_bytes.
  assert (E: idx <? pal_len c = true) by (apply N.ltb_lt; lia).
  destruct d; rewrite ?E; eexists; split; reflexivity.
Qed.

(** linear facts about the geometry, products kept as atoms *)
Lemma geometry c f d m : vesa_wf c f d m ->
  wchars c * f_gw f <= pw c /\ offsetY c + hchars c * f_gh f <= ph c /\
  1 <= pitch c /\ pitch c < two32 /\ ph c < two32 /\ pw c < two32 /\ 1 <= ph c /\ 1 <= pw c /\
  pw c <= pw c * bytespp c /\ 1 <= bytespp c <= 4 /\ f_gw f <= pw c /\ f_gh f <= ph c.
Proof.
  intros W.
  assert (Hs: 1 <= bytespp c <= 4) by (destruct (depth_cases c f d m W) as [[_ E]|[[_ E]|[_ [E|E]]]]; rewrite E; lia).
  destruct W.
  assert (A: wchars c * f_gw f <= pw c).
  { rewrite wf_wchars0, N.mul_comm. apply N.mul_div_le. lia. }
  assert (B: hchars c * f_gh f <= ph c - offsetY c).
  { rewrite wf_hchars0, N.mul_comm. apply N.mul_div_le. lia. }
  assert (C1: 1 * f_gw f <= wchars c * f_gw f) by (apply N.mul_le_mono_r; lia).
  assert (C2: 1 * f_gh f <= hchars c * f_gh f) by (apply N.mul_le_mono_r; lia).
  assert (D1: pw c * 1 <= pw c * bytespp c) by (apply N.mul_le_mono_l; lia).
  assert (D2: 1 * pitch c <= ph c * pitch c) by (apply N.mul_le_mono_r; lia).
  assert (D3: ph c * 1 <= ph c * pitch c) by (apply N.mul_le_mono_l; lia).
  lia.
Qed.

Lemma geometry_cols c f d m : vesa_wf c f d m -> wchars c * f_gw f <= pw c.
Proof. intros W. apply (geometry c f d m W). Qed.

Lemma geometry_rows c f d m : vesa_wf c f d m -> offsetY c + hchars c * f_gh f <= ph c.
Proof. intros W. apply (geometry c f d m W). Qed.

Lemma geometry_pitch c f d m : vesa_wf c f d m -> 1 <= pitch c < two32.
Proof. intros W. split; apply (geometry c f d m W). Qed.

Lemma geometry_dims32 c f d m : vesa_wf c f d m -> ph c < two32 /\ pw c < two32.
Proof. intros W. split; apply (geometry c f d m W). Qed.

Lemma geometry_bytespp c f d m : vesa_wf c f d m -> 1 <= bytespp c <= 4.
Proof. intros W. apply (geometry c f d m W). Qed.

Lemma chars_lt32 c f d m : vesa_wf c f d m -> wchars c < two32 /\ hchars c < two32.
Proof.
  intros W. pose proof (geometry_cols c f d m W) as G1. pose proof (geometry_rows c f d m W) as G2.
  pose proof (geometry_dims32 c f d m W) as [G5 G6].
  pose proof (wf_gw _ _ _ _ W). pose proof (wf_gh _ _ _ _ W).
  assert (wchars c * 1 <= wchars c * f_gw f) by (apply N.mul_le_mono_l; lia).
  assert (hchars c * 1 <= hchars c * f_gh f) by (apply N.mul_le_mono_l; lia). lia.
Qed.

(** the pixel origin of cell (x0, y0) and its framebuffer offset, as Write and Fill compute them: nothing wraps *)
Lemma cell_origin c f d m x0 y0 :
  vesa_wf c f d m -> 1 <= x0 <= wchars c -> 1 <= y0 <= hchars c ->
  mul32 (sub32 x0 1) (f_gw f) = (x0 - 1) * f_gw f /\ mul32 (sub32 y0 1) (f_gh f) = (y0 - 1) * f_gh f /\
  fb_offset c ((x0 - 1) * f_gw f) ((y0 - 1) * f_gh f)
    = ((y0 - 1) * f_gh f + offsetY c) * pitch c + (x0 - 1) * f_gw f * bytespp c.
Proof.
  intros W Hx Hy.
  pose proof (geometry_cols c f d m W) as G1. pose proof (geometry_rows c f d m W) as G2.
  pose proof (geometry_pitch c f d m W) as G3. pose proof (geometry_dims32 c f d m W) as [G5 G6].
  pose proof (wf_pitch _ _ _ _ W) as Hpitch. pose proof (wf_size _ _ _ _ W) as Hsize.
  pose proof (chars_lt32 c f d m W) as [Hwc Hhc].
  assert (HA: (x0 - 1) * f_gw f <= wchars c * f_gw f) by (apply N.mul_le_mono_r; lia).
  assert (HC: (y0 - 1) * f_gh f <= hchars c * f_gh f) by (apply N.mul_le_mono_r; lia).
  rewrite (sub32_small x0 1), (sub32_small y0 1), (mul32_small (x0 - 1)), (mul32_small (y0 - 1)) by lia.
  set (A := (x0 - 1) * f_gw f) in *. set (Cy := (y0 - 1) * f_gh f) in *.
  assert (HAs: A * bytespp c <= pw c * bytespp c) by (apply N.mul_le_mono_r; lia).
  assert (HY: (Cy + offsetY c) * pitch c + pitch c <= ph c * pitch c).
  { replace ((Cy + offsetY c) * pitch c + pitch c) with ((Cy + offsetY c + 1) * pitch c) by lia.
    apply N.mul_le_mono_r. pose proof (wf_gh _ _ _ _ W). pose proof (wf_h1 _ _ _ _ W).
    assert ((y0 - 1) * f_gh f + 1 * f_gh f <= hchars c * f_gh f) by (rewrite <- N.mul_add_distr_r; apply N.mul_le_mono_r; lia).
    lia. }
  unfold fb_offset. rewrite (add32_small Cy), (mul32_small A), mul32_small, add32_small by lia. auto.
Qed.

Lemma cell_rect_fits c f d m x0 y0 w h :
  vesa_wf c f d m -> 1 <= x0 -> x0 - 1 + w <= wchars c -> 1 <= y0 -> y0 - 1 + h <= hchars c ->
  (x0 - 1) * f_gw f * bytespp c + w * f_gw f * bytespp c <= pitch c /\
  ((y0 - 1) * f_gh f + offsetY c + h * f_gh f) * pitch c <= flen m /\
  flen m < two32 /\ w * f_gw f * bytespp c <= pitch c /\ w * f_gw f <= pw c /\ h * f_gh f <= ph c.
Proof.
  intros W Hx Hw Hy Hh.
  pose proof (geometry_cols c f d m W) as G1. pose proof (geometry_rows c f d m W) as G2.
  pose proof (wf_pitch _ _ _ _ W) as Hpitch.
  rewrite (wf_flen _ _ _ _ W). pose proof (wf_size _ _ _ _ W) as Hsize.
  assert (HA: (x0 - 1) * f_gw f + w * f_gw f <= wchars c * f_gw f).
  { rewrite <- N.mul_add_distr_r. apply N.mul_le_mono_r. lia. }
  assert (HC: (y0 - 1) * f_gh f + h * f_gh f <= hchars c * f_gh f).
  { rewrite <- N.mul_add_distr_r. apply N.mul_le_mono_r. lia. }
  set (A := (x0 - 1) * f_gw f) in *. set (Cy := (y0 - 1) * f_gh f) in *.
  assert (HAs: (A + w * f_gw f) * bytespp c <= pw c * bytespp c) by (apply N.mul_le_mono_r; lia).
  assert (HY: (Cy + offsetY c + h * f_gh f) * pitch c <= ph c * pitch c) by (apply N.mul_le_mono_r; lia).
  repeat split; lia.
Qed.

(** ---- Fill: the rectangle in (row, pixel column) coordinates ---- *)
Lemma vesa_fill_coord c f d m x y width height fg bg :
  vesa_wf c f d m -> bg < 256 ->
  let x0 := clamp1 x (wchars c) in
  let y0 := clamp1 y (hchars c) in
  let w' := N.min width (wchars c - x0 + 1) in
  let h' := N.min height (hchars c - y0 + 1) in
  let s := bytespp c in
  let A := (x0 - 1) * f_gw f in
  let Y0 := (y0 - 1) * f_gh f + offsetY c in
  exists m' bytes, pixel_bytes c d bg = Some bytes /\ N.of_nat (length bytes) = ncomp d /\
    vesa_fill c m x y width height fg bg = Ok m' /\ flen m' = flen m /\
    forall Y b, b < pitch c ->
      load m' (Y * pitch c + b) =
        if (Y0 <=? Y) && (Y <? Y0 + h' * f_gh f) && (A <=? b / s) && (b / s <? A + w' * f_gw f) && (b mod s <? ncomp d)
        then byte_at bytes (b mod s) else load m (Y * pitch c + b).
Proof.
  intros W Hbg. cbv zeta.
  pose proof (geometry_pitch c f d m W) as G3. pose proof (geometry_dims32 c f d m W) as [G5 G6].
  pose proof (geometry_bytespp c f d m W) as G10.
  pose proof (clamp1_range x (wchars c) (wf_w1 _ _ _ _ W)) as Hx.
  pose proof (clamp1_range y (hchars c) (wf_h1 _ _ _ _ W)) as Hy.
  unfold vesa_fill. rewrite (wf_font _ _ _ _ W), (wf_depth _ _ _ _ W). cbv zeta.
  rewrite !(clamp_org_eq x), !(clamp_org_eq y).
  set (x0 := clamp1 x (wchars c)) in *. set (y0 := clamp1 y (hchars c)) in *.
  pose proof (chars_lt32 c f d m W) as [Hwc Hhc].
  rewrite !clip_ext_eq by lia.
  set (w' := N.min width (wchars c - x0 + 1)). set (h' := N.min height (hchars c - y0 + 1)).
  destruct (pixel_bytes_ok c f d m bg W Hbg) as [bytes [Hpb Hlen]]. rewrite Hpb.
  rewrite (px_step_eq c f d m W).
  destruct (cell_origin c f d m x0 y0 W Hx Hy) as [-> [-> ->]].
  destruct (cell_rect_fits c f d m x0 y0 w' h' W) as [F1 [F2 [F3 [F4 [F5 F6]]]]]; try lia.
  rewrite (mul32_small w'), (mul32_small h'), (mul32_small (w' * f_gw f)) by lia.
  destruct (fill_rect (bytespp c) bytes (pitch c) (w' * f_gw f) (h' * f_gh f) m
                      ((y0 - 1) * f_gh f + offsetY c) ((x0 - 1) * f_gw f * bytespp c))
    as [m' [r' [E [E1 E2]]]]; try lia.
  { rewrite Hlen. apply (ncomp_le c f d m W). }
  rewrite E. cbn [res_of_loop fst]. exists m', bytes. repeat split; auto.
  intros Y b Hb. rewrite E2, Hlen by exact Hb.
  apply (pixel_cols (bytespp c) _ _ _ b (fun _ k => byte_at bytes k)). lia.
Qed.
