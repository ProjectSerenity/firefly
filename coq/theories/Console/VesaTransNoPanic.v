(** Under C19's geometry [vesa_wf] the runs of the model's Write / Fill / Scroll end with [Ok] (Console/VesaGridProofs.v),
    hence the translation of vesa_fb.go (Gen/Trans_console_vesa.v) returns the model's state (Console/VesaTrans.v). *)
From Coq Require Import NArith PArith String List Bool Lia.
From FF Require Import Lib.Word Lib.GoOps Gen.Consts_device_tty Gen.Consts_device_video_console Gen.Trans_console_vesa.
From FF Require Import Console.Mem Console.Loop Console.Vesa Console.VesaProofs Console.VgaProofs Console.VesaGridProofs.
From FF Require Import Console.VesaTrans.
Local Open Scope N_scope.

(** ---- under C19's geometry the translated Write / Fill / Scroll return the model's [Ok] state ---- *)
Theorem trans_no_panic c f d phys m fuel :
  vesa_wf c f d m -> bytes_ok c -> (Pos.to_nat fuel32 <= fuel)%nat ->
  (forall ch fg bg x y, ch < 256 -> fg < 256 -> bg < 256 -> x < two32 -> y < two32 ->
     exists m', vesa_write c m ch fg bg x y = Ok m' /\ vesa_wf c f d m' /\
       go_console_VesaFbConsole_Write fuel (to_gs c phys m) ch fg bg x y (bsize (cinfo c)) (bpos (cinfo c)) (gsize (cinfo c))
         (gpos (cinfo c)) (rsize (cinfo c)) (rpos (cinfo c)) (fbpr c) (fdata c) (fgh c) (fgw c) = GOk (to_gs c phys m', tt)) /\
  (forall x y width height fg bg, bg < 256 ->
     exists m', vesa_fill c m x y width height fg bg = Ok m' /\ vesa_wf c f d m' /\
       go_console_VesaFbConsole_Fill fuel (to_gs c phys m) x y width height fg bg (bsize (cinfo c)) (bpos (cinfo c)) (gsize (cinfo c))
         (gpos (cinfo c)) (rsize (cinfo c)) (rpos (cinfo c)) (fgh c) (fgw c) = GOk (to_gs c phys m', tt)) /\
  (forall dir lines, lines < two32 -> dir = console_ScrollDirUp \/ dir = console_ScrollDirDown ->
     exists m', vesa_scroll c m dir lines = Ok m' /\ vesa_wf c f d m' /\
       go_console_VesaFbConsole_Scroll fuel (to_gs c phys m) dir lines (fgh c) = GOk (to_gs c phys m', tt)).
Proof.
  intros W Hb Hfuel. split; [|split].
  - intros ch fg bg x y H1 H2 H3 H4 H5.
    destruct (vesa_write_refines c f d m ch fg bg x y W H1 H2 H3 H4 H5) as (m' & fgb & bgb & _ & _ & E & W' & _).
    exists m'. split; [exact E|]. split; [exact W'|].
    pose proof (write_is_translation c phys m ch fg bg x y fuel H1 Hb Hfuel) as T. rewrite E in T. exact T.
  - intros x y width height fg bg H1.
    destruct (vesa_fill_refines c f d m x y width height fg bg W H1) as (m' & bgb & _ & E & W' & _).
    exists m'. split; [exact E|]. split; [exact W'|].
    pose proof (fill_is_translation c phys m x y width height fg bg fuel Hb Hfuel) as T. rewrite E in T. exact T.
  - intros dir lines H1 Hd.
    assert (exists sd, dir_of dir = Some sd) as [sd Hsd] by (destruct Hd as [-> | ->]; eexists; reflexivity).
    destruct (vesa_scroll_refines c f d m dir sd lines W H1 Hsd) as (m' & E & W' & _).
    exists m'. split; [exact E|]. split; [exact W'|].
    pose proof (scroll_is_translation c phys m dir lines fuel Hfuel) as T. rewrite E in T. exact T.
Qed.
