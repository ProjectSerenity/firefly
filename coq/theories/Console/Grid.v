(** Cell-level semantics of a console device (kernel/device/video/console/device.go: the
    [Device] interface).  A console is a grid of cells addressed 1-based: column [x] in
    [1..gw], line [y] in [1..gh].  The three operations below are what the property C19 states
    at cell level; [Console/VgaProofs.v] and [Console/VesaGridProofs.v] prove that the text-mode and
    the framebuffer driver refine them, C18 composes the terminal emulator with them.

    Definitions and a few structural lemmas only; polymorphic in the cell content [C]
    (text mode: the 16-bit cell value; framebuffer: the pixels of the cell). *)
From Coq Require Import NArith Bool Lia.
Local Open Scope N_scope.

Inductive scroll_dir := ScrollUp | ScrollDown.

Section Grid.
  Context {C : Type}.

  (** [gcell x y] is meaningful for [1 <= x <= gw], [1 <= y <= gh] only. *)
  Record grid := mkGrid { gw : N; gh : N; gcell : N -> N -> C }.

  Definition in_grid (g : grid) (x y : N) : bool :=
    (1 <=? x) && (x <=? gw g) && (1 <=? y) && (y <=? gh g).

  (** Write: sets exactly the addressed cell; coordinates outside the grid: nothing happens. *)
  Definition g_write (g : grid) (x y : N) (c : C) : grid :=
    if in_grid g x y
    then mkGrid (gw g) (gh g) (fun x' y' => if (x' =? x) && (y' =? y) then c else gcell g x' y')
    else g.

  (** Fill: the origin is clamped into the grid (0 -> 1, beyond the edge -> the edge), the extent
      [width] x [height] (any natural numbers, e.g. 2^32-1) is clipped at the right and bottom
      edges.  [in_fill g x y width height cx cy]: cell (cx,cy) belongs to the effective area. *)
  Definition clamp1 (v m : N) : N := if v =? 0 then 1 else if m <=? v then m else v.

  Definition in_fill (g : grid) (x y width height cx cy : N) : bool :=
    let x0 := clamp1 x (gw g) in
    let y0 := clamp1 y (gh g) in
    (x0 <=? cx) && (cx <? x0 + width) && (cx <=? gw g) &&
    (y0 <=? cy) && (cy <? y0 + height) && (cy <=? gh g).

  Definition g_fill (g : grid) (x y width height : N) (c : C) : grid :=
    mkGrid (gw g) (gh g)
      (fun cx cy => if in_fill g x y width height cx cy then c else gcell g cx cy).

  (** Scroll by [n] lines, [1 <= n <= gh]: line [y] receives the former line [y+n] (up) /
      [y-n] (down).  The content of the [n] vacated lines is the caller's business (device.go:
      "The caller is responsible for updating the contents of the region that was scrolled"); it is
      a parameter [junk] here: a driver refines [g_scroll] for SOME junk, a client must be correct
      for EVERY junk.  Any other [n]: nothing happens. *)
  Definition scroll_ok (g : grid) (n : N) : bool := (1 <=? n) && (n <=? gh g).

  Definition g_scroll (g : grid) (d : scroll_dir) (n : N) (junk : N -> N -> C) : grid :=
    if scroll_ok g n then
      mkGrid (gw g) (gh g)
        (fun x y => match d with
                    | ScrollUp => if y + n <=? gh g then gcell g x (y + n) else junk x y
                    | ScrollDown => if n <? y then gcell g x (y - n) else junk x y
                    end)
    else g.

  (** Two grids show the same thing: same dimensions, related content in every cell of the grid. *)
  Definition grid_equiv (R : C -> C -> Prop) (g g' : grid) : Prop :=
    gw g = gw g' /\ gh g = gh g' /\
    forall x y, in_grid g x y = true -> R (gcell g x y) (gcell g' x y).

  Definition grid_eq : grid -> grid -> Prop := grid_equiv eq.

  (** ---- structural facts ---- *)
  Lemma g_write_dims g x y c : gw (g_write g x y c) = gw g /\ gh (g_write g x y c) = gh g.
  Proof. unfold g_write. destruct (in_grid g x y); auto. Qed.

  Lemma g_fill_dims g x y w h c : gw (g_fill g x y w h c) = gw g /\ gh (g_fill g x y w h c) = gh g.
  Proof. auto. Qed.

  Lemma g_scroll_dims g d n j : gw (g_scroll g d n j) = gw g /\ gh (g_scroll g d n j) = gh g.
  Proof. unfold g_scroll. destruct (scroll_ok g n); auto. Qed.

  Lemma g_write_same g x y c : in_grid g x y = true -> gcell (g_write g x y c) x y = c.
  Proof. intros H. unfold g_write. rewrite H. cbn. now rewrite !N.eqb_refl. Qed.

  Lemma g_write_other g x y c x' y' : (x', y') <> (x, y) -> gcell (g_write g x y c) x' y' = gcell g x' y'.
  Proof.
    intros H. unfold g_write. destruct (in_grid g x y); auto. cbn.
    destruct (N.eqb_spec x' x); destruct (N.eqb_spec y' y); cbn; auto. subst. congruence.
  Qed.

  Lemma g_write_outside g x y c : in_grid g x y = false -> g_write g x y c = g.
  Proof. intros H. unfold g_write. now rewrite H. Qed.

  (** the clamped origin lies in the grid (when the grid has a cell at all) *)
  Lemma clamp1_range v m : 1 <= m -> 1 <= clamp1 v m <= m.
  Proof.
    intros H. unfold clamp1. destruct (N.eqb_spec v 0); [lia|].
    destruct (N.leb_spec m v); lia.
  Qed.

  (** the effective fill area in closed form: a cell of the grid is filled iff it lies right of /
      below the clamped origin and within [width] x [height] of it *)
  Lemma in_fill_spec g x y w h cx cy :
    in_fill g x y w h cx cy = true <->
    clamp1 x (gw g) <= cx < clamp1 x (gw g) + w /\ cx <= gw g /\
    clamp1 y (gh g) <= cy < clamp1 y (gh g) + h /\ cy <= gh g.
  Proof.
    unfold in_fill. rewrite !andb_true_iff, !N.leb_le, !N.ltb_lt. tauto.
  Qed.

  Lemma in_fill_in_grid g x y w h cx cy :
    1 <= gw g -> 1 <= gh g -> in_fill g x y w h cx cy = true -> in_grid g cx cy = true.
  Proof.
    intros Hw Hh H. apply in_fill_spec in H.
    pose proof (clamp1_range x (gw g) Hw). pose proof (clamp1_range y (gh g) Hh).
    unfold in_grid. rewrite !andb_true_iff, !N.leb_le. lia.
  Qed.

  Lemma g_scroll_ignored g d n j : scroll_ok g n = false -> g_scroll g d n j = g.
  Proof. intros H. unfold g_scroll. now rewrite H. Qed.
End Grid.

Arguments grid : clear implicits.
