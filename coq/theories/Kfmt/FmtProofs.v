(** Proofs about fmtInt (Kfmt/Fmt.v) against the specification Kfmt/FmtSpec.v. *)
From Coq Require Import NArith ZArith List Bool Lia.
From Coq Require Import ZifyBool ZifyN ZifyNat.
From FF Require Import Lib.Std Lib.Word Gen.Consts_kfmt Kfmt.Fmt Kfmt.FmtSpec.
Import ListNotations.
Local Open Scope Z_scope.

(** ---- the generated constants, as the proofs need them ---- *)
Lemma maxBufSize_eq : maxBufSize = 32. Proof. reflexivity. Qed.
Definition buf_len : nat := N.to_nat kfmt_numFmtBufLen.
(** fmtInt writes at most maxBufSize = 32 bytes: 31 padded characters and the sign *)
Lemma buf_len_ge : (32 <= buf_len)%nat. Proof. apply Nat.leb_le. reflexivity. Qed.
Lemma buf_cap_eq : kfmt_numFmtBufCap = kfmt_numFmtBufLen. Proof. reflexivity. Qed.
Lemma single_ok c : single c = Ok [c]. Proof. reflexivity. Qed.

Lemma bind_Ok {A B} (o : outcome A) (f : A -> outcome B) r :
  bind o f = Ok r -> exists a, o = Ok a /\ f a = Ok r.
Proof. destruct o; cbn [bind]; [eauto|discriminate|discriminate]. Qed.

Ltac len_norm := repeat (progress (rewrite ?app_length, ?repeat_length, ?rev_length; cbn [length])).
Ltac norm_app := repeat (first [rewrite <- app_assoc | progress cbn [app]]).

(** ---- buffer access ---- *)

Lemma skipn_S_len_app (pre : list N) x post : skipn (S (length pre)) (pre ++ x :: post) = post.
Proof. induction pre as [|a pre IH]; simpl; [reflexivity | exact IH]. Qed.

Lemma bset_at pre x post v r :
  r = Z.of_nat (length pre) -> bset (pre ++ x :: post) r v = Ok (pre ++ v :: post).
Proof.
  intros ->. unfold bset.
  destruct (Z.of_nat (length pre) <? 0) eqn:E; [lia|].
  rewrite Nat2Z.id.
  assert (Hl : (length pre <? length (pre ++ x :: post))%nat = true).
  { apply Nat.ltb_lt. rewrite app_length. simpl. lia. }
  rewrite Hl, firstn_len_app, skipn_S_len_app. reflexivity.
Qed.

Lemma bget_at pre x post r :
  r = Z.of_nat (length pre) -> bget (pre ++ x :: post) r = Ok x.
Proof.
  intros ->. unfold bget.
  destruct (Z.of_nat (length pre) <? 0) eqn:E; [lia|].
  rewrite Nat2Z.id, nth_error_app2 by lia. rewrite Nat.sub_diag. reflexivity.
Qed.

(** ---- digits ---- *)
Local Open Scope N_scope.

Lemma digit_char_of rem : rem < 16 -> digit_char rem = digit_of rem.
Proof.
  intros H. unfold digit_char, digit_of, w8, two8.
  destruct (rem <? 10) eqn:E.
  - rewrite (N.mod_small rem) by lia. rewrite N.mod_small by lia. lia.
  - rewrite (N.mod_small (rem - 10)) by lia. rewrite N.mod_small by lia. lia.
Qed.

Lemma digit_of_not_space d : d < 16 -> digit_of d <> 32.
Proof. intros H. unfold digit_of. destruct (d <? 10) eqn:E; lia. Qed.

Lemma digit_val_of d : d < 16 -> digit_val (digit_of d) = d.
Proof.
  intros H. unfold digit_val, digit_of. destruct (d <? 10) eqn:E.
  - destruct (48 + d <? 58) eqn:F; lia.
  - destruct (87 + d <? 58) eqn:F; lia.
Qed.

Lemma digit_ok_of base d : d < base -> base <= 16 -> digit_ok base (digit_of d).
Proof.
  intros H Hb. unfold digit_ok. rewrite digit_val_of by lia. split; [|exact H].
  unfold digit_of. destruct (d <? 10) eqn:E; lia.
Qed.

(** digits of [n], least significant first (what the loop leaves in the buffer) *)
Fixpoint lsd_digits (m : nat) (base n : N) : list N :=
  match m with
  | O => []
  | S f => digit_of (n mod base) :: (if n / base =? 0 then [] else lsd_digits f base (n / base))
  end.

Lemma digits_fuel_lsd m base n acc : digits_fuel m base n acc = rev (lsd_digits m base n) ++ acc.
Proof.
  revert n acc. induction m as [|m IH]; intros n acc; simpl; [reflexivity|].
  destruct (n / base =? 0).
  - reflexivity.
  - rewrite IH. rewrite <- app_assoc. reflexivity.
Qed.

Lemma lsd_length m base n : (length (lsd_digits m base n) <= m)%nat.
Proof.
  revert n. induction m as [|m IH]; intros n; simpl; [lia|].
  destruct (n / base =? 0); simpl; [lia|]. specialize (IH (n / base)). lia.
Qed.

Lemma lsd_nonempty m base n : (1 <= m)%nat -> (1 <= length (lsd_digits m base n))%nat.
Proof. intros H. destruct m; [lia|]. simpl. lia. Qed.

Lemma div_lt_pow base n k : 2 <= base -> n < base ^ N.of_nat (S k) -> n / base < base ^ N.of_nat k.
Proof.
  intros Hb H. apply N.div_lt_upper_bound; [lia|]. rewrite Nat2N.inj_succ, N.pow_succ_r' in H. exact H.
Qed.

Lemma div_pow_pos base n k : n < base ^ N.of_nat (S k) -> n / base <> 0 -> (1 <= k)%nat.
Proof.
  intros H E. destruct k; [|lia]. exfalso. apply E. apply N.div_small.
  change (N.of_nat 1) with 1 in H. rewrite N.pow_1_r in H. exact H.
Qed.

Lemma lsd_fuel_irrel base m : forall m' n, 2 <= base ->
  n < base ^ N.of_nat m -> n < base ^ N.of_nat m' -> (1 <= m)%nat -> (1 <= m')%nat ->
  lsd_digits m base n = lsd_digits m' base n.
Proof.
  induction m as [|m IH]; intros m' n Hb H1 H2 Hm Hm'; [lia|].
  destruct m' as [|m']; [lia|]. simpl.
  destruct (N.eqb_spec (n / base) 0) as [E|E]; [reflexivity|]. f_equal.
  apply IH; eauto using div_lt_pow, div_pow_pos.
Qed.

Lemma lsd_all_digits m base n : 2 <= base -> base <= 16 ->
  Forall (fun c => digit_ok base c /\ c <> 32) (lsd_digits m base n).
Proof.
  intros Hb Hb'. revert n. induction m as [|m IH]; intros n; simpl; [constructor|].
  assert (Hm : n mod base < base) by (apply N.mod_lt; lia).
  constructor.
  - split; [apply digit_ok_of; lia | apply digit_of_not_space; lia].
  - destruct (n / base =? 0); [constructor | apply IH].
Qed.

Lemma lsd_value m base : forall n, 2 <= base -> base <= 16 -> n < base ^ N.of_nat m ->
  fold_right (fun c a => a * base + digit_val c) 0 (lsd_digits m base n) = n.
Proof.
  induction m as [|m IH]; intros n Hb Hb' Hn.
  - simpl in *. lia.
  - cbn [lsd_digits fold_right].
    rewrite digit_val_of by (pose proof (N.mod_lt n base); lia).
    pose proof (N.div_mod n base ltac:(lia)) as D.
    destruct (N.eqb_spec (n / base) 0) as [E|E]; cbn [fold_right].
    + rewrite E in D. lia.
    + rewrite IH by auto using div_lt_pow. lia.
Qed.

Lemma pow2_le_pow base k : 2 <= base -> 2 ^ k <= base ^ k.
Proof. intros H. apply N.pow_le_mono_l. exact H. Qed.

Lemma digits_fuel_bound n base : 2 <= base -> n < base ^ N.of_nat (S (N.to_nat (N.log2 n))).
Proof.
  intros Hb. rewrite Nat2N.inj_succ, N2Nat.id.
  destruct (N.eq_dec n 0) as [->|Hn].
  - change (N.succ (N.log2 0)) with 1%N. rewrite N.pow_1_r. lia.
  - eapply N.lt_le_trans; [apply N.log2_spec; lia|]. apply pow2_le_pow. exact Hb.
Qed.

Lemma digits_lsd base n m : 2 <= base -> n < base ^ N.of_nat m -> (1 <= m)%nat ->
  digits base n = rev (lsd_digits m base n).
Proof.
  intros Hb Hn Hm. unfold digits. rewrite digits_fuel_lsd, app_nil_r. f_equal.
  apply lsd_fuel_irrel; auto; try lia. apply digits_fuel_bound. exact Hb.
Qed.

Lemma value_digits base n : 2 <= base -> base <= 16 -> value base (digits base n) = n.
Proof.
  intros Hb Hb'. unfold value, digits. rewrite digits_fuel_lsd, app_nil_r.
  rewrite <- fold_left_rev_right, rev_involutive.
  apply lsd_value; auto. apply digits_fuel_bound. exact Hb.
Qed.

Lemma digits_ok base n : 2 <= base -> base <= 16 ->
  Forall (digit_ok base) (digits base n) /\ digits base n <> [].
Proof.
  intros Hb Hb'. unfold digits. rewrite digits_fuel_lsd, app_nil_r. split.
  - apply Forall_rev. eapply Forall_impl; [|apply lsd_all_digits; auto]. intros c [H _]. exact H.
  - intros E. apply (f_equal (@length N)) in E. rewrite rev_length in E. simpl in E.
    pose proof (lsd_nonempty (S (N.to_nat (N.log2 n))) base n ltac:(lia)). lia.
Qed.

Local Open Scope Z_scope.

(** ---- the four loops of fmtInt ---- *)
Lemma digit_loop_spec m : forall fuel divider pre post uval,
  (2 <= divider)%N -> (divider <= 16)%N ->
  (uval < divider ^ N.of_nat m)%N -> (1 <= m)%nat -> (m <= fuel)%nat ->
  (length pre + m <= 32)%nat -> (m <= length post)%nat ->
  let ds := lsd_digits m divider uval in
  digit_loop fuel divider (pre ++ post) (Z.of_nat (length pre)) uval =
    Ok (pre ++ ds ++ skipn (length ds) post, Z.of_nat (length pre + length ds)).
Proof.
  induction m as [|m IH]; intros fuel divider pre post uval Hd Hd' Hu Hm Hf Hlen Hpost; [lia|].
  destruct fuel as [|fuel]; [lia|].
  destruct post as [|x post]; [simpl in Hpost; lia|].
  cbn [digit_loop lsd_digits]. rewrite maxBufSize_eq.
  destruct (Z.ltb_spec (Z.of_nat (length pre)) 32); [|lia].
  destruct (N.eqb_spec divider 0); [lia|].
  rewrite digit_char_of by (pose proof (N.mod_lt uval divider); lia).
  rewrite (bset_at pre x post) by reflexivity. cbn [bind].
  destruct (N.eqb_spec (uval / divider) 0) as [Eq|Eq].
  - cbn [length app skipn]. do 2 f_equal; lia.
  - specialize (IH fuel divider (pre ++ [digit_of (uval mod divider)]) post (uval / divider)%N Hd Hd'
                   (div_lt_pow _ _ _ Hd Hu) (div_pow_pos _ _ _ Hu Eq)).
    clear Hu. rewrite app_length, <- app_assoc in IH. cbn [length app] in IH.
    replace (Z.of_nat (length pre) + 1) with (Z.of_nat (length pre + 1)) by lia.
    rewrite IH by (cbn [length] in Hpost; lia).
    cbn [length skipn app]. rewrite <- app_assoc. cbn [app]. do 2 f_equal; lia.
Qed.

Lemma pad_loop_spec k : forall fuel pre post padLen padCh,
  k = Z.to_nat (padLen - Z.of_nat (length pre)) -> (k < fuel)%nat -> (k <= length post)%nat ->
  pad_loop fuel (pre ++ post) (Z.of_nat (length pre)) padLen padCh =
    Ok (pre ++ repeat padCh k ++ skipn k post, Z.of_nat (length pre + k)).
Proof.
  induction k as [|k IH]; intros fuel pre post padLen padCh Hk Hf Hpost;
    (destruct fuel as [|fuel]; [lia|]); cbn [pad_loop].
  - destruct (Z.of_nat (length pre) - 0 <? padLen) eqn:E; [lia|].
    cbn [repeat app skipn]. do 2 f_equal; lia.
  - destruct (Z.of_nat (length pre) - 0 <? padLen) eqn:E; [|lia].
    destruct post as [|x post]; [simpl in Hpost; lia|].
    rewrite (bset_at pre x post) by reflexivity. cbn [bind].
    specialize (IH fuel (pre ++ [padCh]) post padLen padCh).
    rewrite app_length in IH. cbn [length] in IH.
    replace (Z.of_nat (length pre) + 1) with (Z.of_nat (length pre + 1)) by lia.
    rewrite <- app_assoc in IH. cbn [app] in IH.
    rewrite IH; try lia; [|simpl in Hpost; lia].
    cbn [repeat skipn app]. rewrite <- app_assoc. cbn [app]. do 2 f_equal; lia.
Qed.

Lemma sign_search_spec k : forall fuel ds c post e,
  c <> 32%N -> (k < fuel)%nat -> e = Z.of_nat (length ds + k) ->
  sign_search fuel ((ds ++ [c]) ++ repeat 32%N k ++ post) e = Ok (Z.of_nat (length ds)).
Proof.
  induction k as [|k IH]; intros fuel ds c post e Hc Hf ->; (destruct fuel as [|fuel]; [lia|]); cbn [sign_search].
  - cbn [repeat app]. rewrite <- app_assoc. cbn [app].
    rewrite (bget_at ds c post) by lia. cbn [bind].
    destruct (c =? 32)%N eqn:E; [apply N.eqb_eq in E; contradiction|]. f_equal. lia.
  - change (repeat 32%N (S k)) with (32%N :: repeat 32%N k). rewrite repeat_cons.
    rewrite <- (app_assoc (repeat 32%N k)). cbn [app].
    rewrite (app_assoc (ds ++ [c])).
    rewrite (bget_at ((ds ++ [c]) ++ repeat 32%N k) 32%N post).
    2:{ rewrite !app_length, repeat_length. simpl. lia. }
    cbn [bind N.eqb Pos.eqb].
    specialize (IH fuel ds c (32%N :: post) _ Hc ltac:(lia) eq_refl).
    replace (Z.of_nat (length ds + S k) - 1) with (Z.of_nat (length ds + k)) by lia.
    rewrite <- app_assoc. exact IH.
Qed.

Lemma reverse_loop_spec fuel : forall mid pre post,
  (length mid < fuel)%nat ->
  reverse_loop fuel (pre ++ mid ++ post) (Z.of_nat (length pre)) (Z.of_nat (length pre + length mid) - 1)
  = Ok (pre ++ rev mid ++ post).
Proof.
  induction fuel as [|fuel IH]; intros mid pre post Hf; [lia|]. cbn [reverse_loop].
  destruct mid as [|a mid].
  - cbn [length]. destruct (Z.of_nat (length pre) <? Z.of_nat (length pre + 0) - 1) eqn:E; [lia|]. reflexivity.
  - destruct (exists_last (l := a :: mid) ltac:(discriminate)) as [mid' [b Hm]].
    destruct mid' as [|a' mid'].
    + (* single element *)
      cbn [app] in Hm. injection Hm as -> ->. cbn [length].
      destruct (Z.of_nat (length pre) <? Z.of_nat (length pre + 1) - 1) eqn:E; [lia|]. reflexivity.
    + cbn [app] in Hm. injection Hm as <- ->. cbn [length]. rewrite app_length. cbn [length].
      destruct (Z.of_nat (length pre) <? Z.of_nat (length pre + S (length mid' + 1)) - 1) eqn:E; [|lia].
      cbn [app]. rewrite (bget_at pre a) by reflexivity. cbn [bind].
      (* right element *)
      assert (Hr : pre ++ a :: (mid' ++ [b]) ++ post = (pre ++ a :: mid') ++ b :: post).
      { norm_app. reflexivity. }
      rewrite Hr. rewrite (bget_at (pre ++ a :: mid') b post).
      2:{ rewrite app_length. cbn [length]. lia. }
      cbn [bind]. rewrite <- Hr.
      rewrite (bset_at pre a) by reflexivity. cbn [bind].
      assert (Hr2 : pre ++ b :: (mid' ++ [b]) ++ post = (pre ++ b :: mid') ++ b :: post).
      { norm_app. reflexivity. }
      rewrite Hr2. rewrite (bset_at (pre ++ b :: mid') b post).
      2:{ rewrite app_length. cbn [length]. lia. }
      cbn [bind].
      specialize (IH mid' (pre ++ [b]) (a :: post)).
      rewrite app_length in IH. cbn [length] in IH.
      replace (Z.of_nat (length pre) + 1) with (Z.of_nat (length pre + 1)) by lia.
      replace (Z.of_nat (length pre + S (length mid' + 1)) - 1 - 1) with (Z.of_nat (length pre + 1 + length mid') - 1) by lia.
      assert (Hr3 : (pre ++ b :: mid') ++ a :: post = (pre ++ [b]) ++ mid' ++ a :: post).
      { norm_app. reflexivity. }
      rewrite Hr3, IH by (cbn [length] in Hf; rewrite app_length in Hf; cbn [length] in Hf; lia).
      f_equal. cbn [rev]. rewrite rev_app_distr. cbn [rev app].
      rewrite <- !app_assoc. cbn [app]. reflexivity.
Qed.

(** ---- fmtInt assembled ---- *)
Lemma bslice_at pre post r : r = Z.of_nat (length pre) -> bslice (pre ++ post) r = Ok pre.
Proof.
  intros ->. unfold bslice. destruct (Z.of_nat (length pre) <? 0) eqn:E; [lia|].
  rewrite Nat2Z.id.
  assert (H : (length pre <=? length (pre ++ post))%nat = true).
  { apply Nat.leb_le. rewrite app_length. lia. }
  rewrite H, firstn_len_app. reflexivity.
Qed.

Lemma rev_repeat (c : N) k : rev (repeat c k) = repeat c k.
Proof.
  induction k as [|k IH]; [reflexivity|]. cbn [repeat rev]. rewrite IH.
  clear. induction k; simpl; [reflexivity|]. rewrite IHk. reflexivity.
Qed.

(** everything after the padding loop *)
Definition int_tail (fuel : nat) (r2 : list N * Z) (neg : bool) : outcome (list chunk * list N) :=
  r3 <- (if neg then
           e <- sign_search fuel (fst r2) (snd r2 - 1) ;;
           let right := if e =? snd r2 - 1 then snd r2 + 1 else snd r2 in
           buf' <- bset (fst r2) (e + 1) 45%N ;;
           Ok (buf', right)
         else Ok r2) ;;
  let e := snd r3 in
  buf4 <- reverse_loop fuel (fst r3) 0 (snd r3 - 1) ;;
  out <- bslice buf4 e ;;
  Ok ([out], buf4).

Definition int_core (buf : list N) (divider padCh : N) (padLen : Z) (neg : bool) (uval : N) :=
  r1 <- digit_loop (S (Z.to_nat maxBufSize)) divider buf 0 uval ;;
  r2 <- pad_loop (S (length buf)) (fst r1) (snd r1) padLen padCh ;;
  int_tail (S (length buf)) r2 neg.

Lemma reverse_loop_whole fuel mid post l r :
  l = 0 -> r = Z.of_nat (length mid) - 1 -> (length mid < fuel)%nat ->
  reverse_loop fuel (mid ++ post) l r = Ok (rev mid ++ post).
Proof.
  intros -> -> Hf. pose proof (reverse_loop_spec fuel mid [] post Hf) as R.
  cbn [app length] in R. rewrite Nat.add_0_l in R. exact R.
Qed.

Lemma int_tail_pos fuel P post r :
  r = Z.of_nat (length P) -> (length P < fuel)%nat ->
  int_tail fuel (P ++ post, r) false = Ok ([rev P], rev P ++ post).
Proof.
  intros -> Hf. unfold int_tail. cbn [bind fst snd].
  rewrite (reverse_loop_whole fuel P post) by (auto; lia). cbn [bind].
  rewrite bslice_at by (rewrite rev_length; reflexivity). reflexivity.
Qed.

Lemma int_tail_neg_append fuel P0 c y post r :
  c <> 32%N -> (length P0 + 2 < fuel)%nat -> r = Z.of_nat (length P0 + 1) ->
  int_tail fuel ((P0 ++ [c]) ++ y :: post, r) true
  = Ok ([45%N :: rev (P0 ++ [c])], (45%N :: rev (P0 ++ [c])) ++ post).
Proof.
  intros Hc Hf ->. unfold int_tail. cbn [fst snd].
  rewrite (sign_search_spec 0 fuel P0 c (y :: post)) by (auto; lia). cbn [bind].
  destruct (Z.of_nat (length P0) =? Z.of_nat (length P0 + 1) - 1) eqn:E; [|lia].
  rewrite (bset_at (P0 ++ [c]) y post) by (rewrite app_length; cbn [length]; lia).
  cbn [bind fst snd].
  assert (Hr : (P0 ++ [c]) ++ 45%N :: post = ((P0 ++ [c]) ++ [45%N]) ++ post) by (norm_app; reflexivity).
  rewrite Hr.
  rewrite (reverse_loop_whole fuel ((P0 ++ [c]) ++ [45%N]) post) by (rewrite ?app_length; cbn [length]; lia).
  cbn [bind]. rewrite rev_app_distr. cbn [rev app].
  rewrite (bslice_at (45%N :: rev (P0 ++ [c])) post).
  2:{ cbn [length]. rewrite rev_length, app_length. cbn [length]. lia. }
  reflexivity.
Qed.

Lemma int_tail_neg_inpad fuel P0 c k post r :
  c <> 32%N -> (length P0 + k + 3 < fuel)%nat -> r = Z.of_nat (length P0 + 1 + S k) ->
  int_tail fuel ((P0 ++ [c]) ++ repeat 32%N (S k) ++ post, r) true
  = Ok ([repeat 32%N k ++ 45%N :: rev (P0 ++ [c])], (repeat 32%N k ++ 45%N :: rev (P0 ++ [c])) ++ post).
Proof.
  intros Hc Hf ->. unfold int_tail. cbn [fst snd].
  rewrite (sign_search_spec (S k) fuel P0 c post) by (auto; lia). cbn [bind].
  destruct (Z.of_nat (length P0) =? Z.of_nat (length P0 + 1 + S k) - 1) eqn:E; [lia|].
  cbn [repeat app].
  rewrite (bset_at (P0 ++ [c]) 32%N (repeat 32%N k ++ post)) by (rewrite app_length; cbn [length]; lia).
  cbn [bind fst snd].
  assert (Hr : (P0 ++ [c]) ++ 45%N :: repeat 32%N k ++ post = ((P0 ++ [c]) ++ 45%N :: repeat 32%N k) ++ post)
    by (norm_app; reflexivity).
  rewrite Hr.
  rewrite (reverse_loop_whole fuel ((P0 ++ [c]) ++ 45%N :: repeat 32%N k) post)
    by (rewrite ?app_length; cbn [length]; rewrite ?repeat_length; lia).
  cbn [bind]. rewrite rev_app_distr. cbn [rev]. rewrite rev_repeat.
  assert (Hr2 : (repeat 32%N k ++ [45%N]) ++ rev (P0 ++ [c]) = repeat 32%N k ++ 45%N :: rev (P0 ++ [c]))
    by (norm_app; reflexivity).
  rewrite Hr2.
  rewrite (bslice_at (repeat 32%N k ++ 45%N :: rev (P0 ++ [c])) post).
  2:{ rewrite app_length, repeat_length. cbn [length]. rewrite rev_length, app_length. cbn [length]. lia. }
  reflexivity.
Qed.

Definition int_out (ds : list N) (padCh : N) (k : nat) (neg : bool) : list N :=
  if neg then
    if (padCh =? 32)%N then
      match k with O => 45%N :: rev ds | S k' => repeat 32%N k' ++ 45%N :: rev ds end
    else 45%N :: repeat padCh k ++ rev ds
  else repeat padCh k ++ rev ds.

(** 22 digits are enough for a 64-bit value in every base from 8 on: 8^22 = 2^66 *)
Lemma pow22_ge (base : N) : (8 <= base)%N -> (2 ^ 64 <= base ^ N.of_nat 22)%N.
Proof.
  intros H. apply N.le_trans with (8 ^ N.of_nat 22)%N; [discriminate|].
  apply N.pow_le_mono_l. exact H.
Qed.

Lemma int_core_spec buf divider padCh padLen neg uval :
  length buf = buf_len -> (divider = 8 \/ divider = 10 \/ divider = 16)%N ->
  (uval < 2 ^ 64)%N -> padLen <= 31 -> (padCh = 32 \/ padCh = 48)%N ->
  let ds := lsd_digits 22 divider uval in
  let k := Z.to_nat (padLen - Z.of_nat (length ds)) in
  exists buf', length buf' = buf_len /\
    int_core buf divider padCh padLen neg uval = Ok ([int_out ds padCh k neg], buf').
Proof.
  intros Hlen Hd Hu Hpad Hch ds k. pose proof buf_len_ge as Hge.
  assert (Hd2 : (2 <= divider)%N /\ (divider <= 16)%N) by lia. destruct Hd2 as [Hd2 Hd16].
  pose proof (pow22_ge divider ltac:(lia)) as Hpow. clear Hd.
  assert (Hn1 : (1 <= length ds)%nat) by (apply lsd_nonempty; lia).
  assert (Hn2 : (length ds <= 22)%nat) by apply lsd_length.
  pose proof (lsd_all_digits 22 divider uval Hd2 Hd16) as Hall. fold ds in Hall.
  unfold int_core.
  pose proof (digit_loop_spec 22 (S (Z.to_nat maxBufSize)) divider [] buf uval Hd2 Hd16 ltac:(lia) ltac:(lia)) as D.
  cbv zeta in D. fold ds in D.
  assert (Hkdef : k = Z.to_nat (padLen - Z.of_nat (length ds))) by reflexivity.
  clearbody k. clearbody ds.
  rewrite maxBufSize_eq in *. cbn [app length] in D. change (Z.of_nat 0) with 0 in D.
  rewrite D by (cbn [Z.to_nat Pos.to_nat Pos.iter_op Nat.add]; lia). clear D. clear Hpow Hu. cbn [bind fst snd].
  set (post1 := skipn (length ds) buf).
  assert (Hp1 : length post1 = (buf_len - length ds)%nat) by (unfold post1; rewrite skipn_length; lia).
  rewrite Nat.add_0_l.
  rewrite (pad_loop_spec k (S (length buf)) ds post1 padLen padCh) by (try reflexivity; lia).
  cbn [bind]. set (post2 := skipn k post1).
  assert (Hp2 : length post2 = (buf_len - length ds - k)%nat) by (unfold post2; rewrite skipn_length; lia).
  clearbody post2. clearbody post1.
  assert (Hk : (length ds + k <= 31)%nat) by lia.
  destruct neg.
  - (* negative *)
    destruct (exists_last (l := ds) ltac:(intros E; rewrite E in Hn1; simpl in Hn1; lia)) as [P0 [c Hds]].
    assert (Hc : c <> 32%N).
    { pose proof Hall as F. rewrite Hds in F.
      apply Forall_app in F. destruct F as [_ F]. inversion F; subst. tauto. }
    assert (HlP : length ds = (length P0 + 1)%nat) by (rewrite Hds, app_length; simpl; lia).
    unfold int_out.
    destruct Hch as [-> | ->]; cbn [N.eqb Pos.eqb].
    + destruct k as [|k'] eqn:Ek.
      * cbn [repeat app]. destruct post2 as [|y post']; [cbn [length] in Hp2; lia|].
        rewrite Hds.
        rewrite (int_tail_neg_append (S (length buf)) P0 c y post').
        2:auto. 2:lia. 2:{ rewrite app_length; cbn [length]; lia. }
        eexists; split; [|reflexivity]. len_norm. cbn [length] in Hp2. lia.
      * rewrite Hds.
        rewrite (int_tail_neg_inpad (S (length buf)) P0 c k' post2) by (auto; rewrite ?app_length; cbn [length]; lia).
        eexists; split; [|reflexivity].
        len_norm. lia.
    + (* zero padding: the last written character is a digit or '0' *)
      destruct post2 as [|y post']; [cbn [length] in Hp2; lia|].
      assert (HP : exists Q c', ds ++ repeat 48%N k = Q ++ [c'] /\ c' <> 32%N).
      { destruct k as [|k'].
        - exists P0, c. cbn [repeat]. rewrite app_nil_r. auto.
        - exists (ds ++ repeat 48%N k'), 48%N. cbn [repeat]. rewrite repeat_cons, app_assoc. split; [reflexivity|discriminate]. }
      destruct HP as [Q [c' [HQ Hc']]].
      assert (HlQ : (length Q + 1 = length ds + k)%nat).
      { apply (f_equal (@length N)) in HQ. rewrite !app_length, repeat_length in HQ. simpl in HQ. lia. }
      rewrite app_assoc, HQ.
      rewrite (int_tail_neg_append (S (length buf)) Q c' y post') by (auto; rewrite ?app_length; cbn [length]; lia).
      rewrite <- HQ, rev_app_distr, rev_repeat.
      eexists; split; [|reflexivity].
      len_norm. cbn [length] in Hp2. lia.
  - rewrite app_assoc.
    rewrite (int_tail_pos (S (length buf)) (ds ++ repeat padCh k) post2)
      by (rewrite app_length, repeat_length; lia).
    rewrite rev_app_distr, rev_repeat. unfold int_out.
    eexists; split; [|reflexivity].
    len_norm. lia.
Qed.

(** ---- fmtInt = specification ---- *)
Definition model_sval (k : ikind) (x : Z) : Z := if signed k then x else 0.
Definition model_mag (k : ikind) (x : Z) : N :=
  let sval := model_sval k x in
  let uval := if signed k then 0%N else to_u64 x in
  if sval <? 0 then to_u64 (wrap_int (- sval)) else if sval >? 0 then to_u64 sval else uval.

Lemma fmt_int_core buf k x base pad : base = 8 \/ base = 10 \/ base = 16 ->
  fmt_int buf (AInt k x) base pad =
    int_core buf (Z.to_N base) (if base =? 10 then 32%N else 48%N)
      (if pad >=? maxBufSize then maxBufSize - 1 else pad) (model_sval k x <? 0) (model_mag k x).
Proof. intros [-> | [-> | ->]]; reflexivity. Qed.

Lemma fmt_int_wrong buf a base pad :
  match a with AInt _ _ => False | _ => True end ->
  fmt_int buf a base pad = Ok ([kfmt_errWrongArgType], buf).
Proof.
  intros H. unfold fmt_int.
  destruct (base =? 8); [|destruct (base =? 10); [|destruct (base =? 16)]]; destruct a; (reflexivity || contradiction).
Qed.

Lemma to_u64_lt z : (to_u64 z < 2 ^ 64)%N.
Proof.
  unfold to_u64, two64z. change (2 ^ 64)%N with (Z.to_N 18446744073709551616).
  pose proof (Z.mod_pos_bound z 18446744073709551616 ltac:(lia)). lia.
Qed.

Lemma model_mag_lt k x : (model_mag k x < 2 ^ 64)%N.
Proof.
  unfold model_mag. destruct (model_sval k x <? 0); [apply to_u64_lt|].
  destruct (model_sval k x >? 0); [apply to_u64_lt|].
  destruct (signed k); [|apply to_u64_lt]. reflexivity.
Qed.

Lemma int_out_layout (base : N) pad neg (ds : list N) :
  let padLen := if pad >=? 32 then 32 - 1 else pad in
  let w := N.min (Z.to_N pad) 31 in
  let len := N.of_nat (length ds) in
  int_out ds (if (base =? 10)%N then 32 else 48)%N (Z.to_nat (padLen - Z.of_nat (length ds))) neg
  = if (base =? 10)%N then
      if neg then (if (len <? w)%N then rep 32 (w - len - 1) ++ 45%N :: rev ds else 45%N :: rev ds)
      else rep 32 (w - len) ++ rev ds
    else (if neg then [45%N] else []) ++ rep 48 (w - len) ++ rev ds.
Proof.
  intros padLen w len.
  set (k := Z.to_nat (padLen - Z.of_nat (length ds))).
  assert (Hk : k = N.to_nat (w - len)) by (unfold k, w, len, padLen; destruct (pad >=? 32) eqn:E; lia).
  unfold int_out, rep. destruct (base =? 10)%N; cbn [N.eqb Pos.eqb].
  - destruct neg; [|rewrite Hk; reflexivity].
    destruct (N.ltb_spec len w).
    + destruct k as [|k']; [lia|]. replace (N.to_nat (w - len - 1)) with k' by lia. reflexivity.
    + replace k with 0%nat by lia. reflexivity.
  - rewrite Hk. destruct neg; reflexivity.
Qed.

Lemma int_out_render base pad neg mag :
  (base = 8 \/ base = 10 \/ base = 16)%N -> (mag < 2 ^ 64)%N ->
  let padLen := if pad >=? 32 then 32 - 1 else pad in
  let ds := lsd_digits 22 base mag in
  int_out ds (if (base =? 10)%N then 32 else 48)%N (Z.to_nat (padLen - Z.of_nat (length ds))) neg
  = render_int base (Z.to_N pad) neg mag.
Proof.
  intros Hb Hm padLen ds. unfold render_int.
  rewrite (digits_lsd base mag 22), rev_length.
  - apply int_out_layout.
  - lia.
  - eapply N.lt_le_trans; [exact Hm|apply pow22_ge; lia].
  - lia.
Qed.

Lemma fmt_int_exact buf k x base pad :
  length buf = buf_len -> base = 8 \/ base = 10 \/ base = 16 ->
  exists buf', length buf' = buf_len /\
    fmt_int buf (AInt k x) base pad =
      Ok ([render_int (Z.to_N base) (Z.to_N pad) (model_sval k x <? 0) (model_mag k x)], buf').
Proof.
  intros Hlen Hb. rewrite fmt_int_core by exact Hb. rewrite maxBufSize_eq.
  assert (HbN : (Z.to_N base = 8 \/ Z.to_N base = 10 \/ Z.to_N base = 16)%N) by lia.
  assert (Hch : (if base =? 10 then 32%N else 48%N) = 32%N \/ (if base =? 10 then 32%N else 48%N) = 48%N)
    by (destruct (base =? 10); auto).
  assert (Hpad : (if pad >=? 32 then 32 - 1 else pad) <= 31) by (destruct (pad >=? 32) eqn:E; lia).
  destruct (int_core_spec buf (Z.to_N base) (if base =? 10 then 32%N else 48%N)
              (if pad >=? 32 then 32 - 1 else pad) (model_sval k x <? 0) (model_mag k x)
              Hlen HbN (model_mag_lt k x) Hpad Hch) as [buf' [Hl' Hc]].
  exists buf'. split; [exact Hl'|]. rewrite Hc.
  pose proof (int_out_render (Z.to_N base) pad (model_sval k x <? 0) (model_mag k x) HbN (model_mag_lt k x)) as R.
  cbv zeta in R.
  replace ((Z.to_N base =? 10)%N) with (base =? 10) in R by (destruct Hb as [-> | [-> | ->]]; reflexivity).
  rewrite R. reflexivity.
Qed.

Lemma in_range_64 k x : in_range k x ->
  if signed k then - two63z <= x < two63z else 0 <= x < two64z.
Proof.
  unfold in_range. intros H.
  assert (Hb : 1 <= bits k <= 64) by (destruct k; split; discriminate).
  destruct (signed k).
  - pose proof (Z.pow_le_mono_r 2 (bits k - 1) 63 eq_refl ltac:(lia)) as P.
    change (2 ^ 63) with two63z in P. lia.
  - pose proof (Z.pow_le_mono_r 2 (bits k) 64 eq_refl (proj2 Hb)) as P.
    change (2 ^ 64) with two64z in P. lia.
Qed.

Lemma model_in_range k x : in_range k x ->
  (model_sval k x <? 0) = (x <? 0) /\ model_mag k x = Z.abs_N x.
Proof.
  intros H. apply in_range_64 in H.
  unfold model_mag, model_sval, to_u64, wrap_int. unfold two63z, two64z in *.
  destruct (signed k).
  - split; [reflexivity|]. destruct (Z.ltb_spec x 0); [lia|]. destruct (Z.gtb_spec x 0); lia.
  - cbn [Z.ltb Z.gtb Z.compare]. split; [symmetry; apply Z.ltb_ge|]; lia.
Qed.
