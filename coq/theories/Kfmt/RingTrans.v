(** The hand-written model of the early ring buffer (Kfmt/Ring.v: [ring_write], [ring_read]) IS the
    Gallina translation that gen/gotrans regenerates from kernel/kfmt/ringbuf.go on every run
    (Gen/Trans_kfmt_ring.v: [go_kfmt_ringBuffer_Write], [go_kfmt_ringBuffer_Read]), on every state that
    satisfies the model's index invariant [valid] (rIndex, wIndex < ringBufferSize, which
    Kfmt/RingProofs.v shows every operation maintains) - values, new state and run-time panics alike.

    The translation works on a record whose [buffer] is the list of the ringBufferSize bytes and whose
    indices are Go ints (two's complement, signed comparisons, wrap at 2^64); the model keeps the
    bytes in a PositiveMap and the indices in unbounded [N].  [to_go] is the abstraction: the table
    of [mget] over 0 .. len-1.  Write's [for _, b := range p] is a fuelled loop in the translation:
    with fuel > len(p) (one iteration per byte and the final test) it never reports [GFuel]. *)
From Coq Require Import NArith ZArith String List Bool Lia FMapPositive.
From Coq Require Import ZifyBool ZifyN ZifyNat.
From FF Require Import Lib.Std Lib.Word Lib.GoOps Lib.GoOpsExt Gen.Consts_kfmt Gen.Trans_kfmt_ring.
From FF Require Import Kfmt.Fmt Kfmt.Ring Kfmt.RingProofs.
Import ListNotations.
Local Open Scope N_scope.

(** ---- the abstraction ---- *)
Definition buf_list (m : rmem) : list N := map (fun k => mget m (N.of_nat k)) (seq 0 (N.to_nat ring_len)).

Definition to_go (rb : ring) : go_kfmt_ringBuffer :=
  mk_go_kfmt_ringBuffer (buf_list (rbuf rb)) (rIdx rb) (wIdx rb).

(** facts about the generated constant (they hold for whatever power of two the source declares) *)
Lemma ring_len_small : ring_len < two63. Proof. reflexivity. Qed.
Lemma ring_mask_const : gsub 64 kfmt_ringBufferSize 1 = ring_size - 1. Proof. reflexivity. Qed.

Lemma buf_list_length m : length (buf_list m) = N.to_nat ring_len.
Proof. unfold buf_list. rewrite map_length, seq_length. reflexivity. Qed.

Lemma buf_list_glen m : glen (buf_list m) = ring_len.
Proof. unfold glen. rewrite buf_list_length. apply N2Nat.id. Qed.

Lemma buf_list_nth m j : (j < N.to_nat ring_len)%nat -> nth j (buf_list m) 0 = mget m (N.of_nat j).
Proof.
  intros H. unfold buf_list. apply nth_error_nth.
  rewrite nth_error_map, (nth_error_nth' (seq 0 (N.to_nat ring_len)) 0%nat) by (rewrite seq_length; exact H).
  rewrite seq_nth by exact H. reflexivity.
Qed.

(** rb.buffer[i] = v *)
Lemma buf_list_set m i v : i < ring_len -> gset (buf_list m) i v = Some (buf_list (mset m i v)).
Proof.
  intros H. destruct (gset (buf_list m) i v) as [l'|] eqn:E.
  2:{ rewrite gset_some in E by (rewrite buf_list_glen; exact H). discriminate. }
  f_equal. apply nth_ext with (d := 0) (d' := 0).
  - rewrite (gset_length _ _ _ _ E), !buf_list_length. reflexivity.
  - intros j Hj. rewrite (gset_length _ _ _ _ E), buf_list_length in Hj.
    rewrite (gset_nth _ _ _ _ j E), !buf_list_nth by exact Hj. rewrite mget_mset.
    destruct (Nat.eqb_spec j (N.to_nat i)); destruct (N.eqb_spec (N.of_nat j) i); try reflexivity; lia.
Qed.

(** rb.buffer[lo:hi] *)
Lemma buf_list_slice m lo hi : lo <= hi -> hi <= ring_len ->
  gslice (buf_list m) lo hi = Some (map (fun k => mget m (lo + N.of_nat k)) (seq 0 (N.to_nat (hi - lo)))).
Proof.
  intros H1 H2. unfold buf_list. rewrite gslice_map_seq by lia. f_equal.
  apply map_ext. intros k. f_equal. lia.
Qed.

(** ---- Write ---- *)
Definition write_result (p : list N) (o : outcome ring) : gres (go_kfmt_ringBuffer * (N * option string)) :=
  match o with
  | Ok rb' => GOk (to_go rb', (glen p, None))
  | Panic _ => GPanic
  | OutOfFuel => GFuel
  end.

(** one iteration of the model, on a valid ring *)
Lemma ring_write1_valid rb b : valid rb ->
  ring_write1 rb b =
  Ok (mkRing (mset (rbuf rb) (wIdx rb) b)
             (if rIdx rb =? N.land (wIdx rb + 1) (ring_size - 1) then N.land (rIdx rb + 1) (ring_size - 1) else rIdx rb)
             (N.land (wIdx rb + 1) (ring_size - 1))).
Proof.
  intros [_ Hw]. unfold ring_write1, rset. rewrite ring_len_eq, SZ_eq.
  destruct (N.ltb_spec (wIdx rb) SZ); [reflexivity|lia].
Qed.

Theorem write_is_translation rb p fuel : valid rb -> (length p < fuel)%nat ->
  go_kfmt_ringBuffer_Write fuel (to_go rb) p = write_result p (ring_write rb p).
Proof.
  intros Hv Hf. unfold go_kfmt_ringBuffer_Write.
  match goal with |- context [gloop ?fu ?f ?s] => set (step := f) end.
  (* the loop invariant: from index k the loop does what the model does on the rest of p *)
  assert (L : forall n k rb0 fu, valid rb0 -> (k + n = length p)%nat -> (n < fu)%nat ->
            gloop fu step (to_go rb0, N.of_nat k) =
            match ring_write rb0 (skipn k p) with
            | Ok rb' => GOk (inl (to_go rb', glen p))
            | Panic _ => GPanic
            | OutOfFuel => GFuel
            end).
  { induction n as [|n IH]; intros k rb0 fu Hv0 Hk Hfu; (destruct fu as [|fu]; [lia|]).
    - (* k = len(p): the condition is false, break *)
      rewrite skipn_all2 by lia. cbn [ring_write].
      rewrite gloop_break with (s' := (to_go rb0, N.of_nat k)).
      + unfold glen. repeat f_equal. lia.
      + unfold step. unfold glen. destruct (N.ltb_spec (N.of_nat k) (N.of_nat (length p))); [lia|reflexivity].
    - (* k < len(p): one iteration *)
      assert (Hlt : (k < length p)%nat) by lia.
      destruct (nth_error p k) as [b|] eqn:Eb; [|apply nth_error_None in Eb; lia].
      rewrite (skipn_nth_error_cons k p b Eb). cbn [ring_write]. rewrite ring_write1_valid by exact Hv0. cbn [bind].
      set (rb1 := mkRing _ _ _).
      assert (Hv1 : valid rb1).
      { destruct (write1_spec rb0 b Hv0) as (rb' & E' & V' & _). rewrite ring_write1_valid in E' by exact Hv0.
        injection E' as <-. exact V'. }
      rewrite <- (IH (S k) rb1 fu Hv1 ltac:(lia) ltac:(lia)).
      apply gloop_next. unfold step, to_go.
      destruct Hv0 as [Hr Hw]. unfold SZ, ring_size in Hr, Hw.
      assert (Hsz : kfmt_ringBufferSize < two63) by reflexivity. unfold two63 in Hsz.
      unfold glen. destruct (N.ltb_spec (N.of_nat k) (N.of_nat (length p))); [|lia].
      unfold gidx. rewrite Nat2N.id, Eb.
      cbn [f_ringBuffer_buffer f_ringBuffer_rIndex f_ringBuffer_wIndex set_f_ringBuffer_buffer set_f_ringBuffer_rIndex set_f_ringBuffer_wIndex rbuf rIdx wIdx].
      rewrite gsets_small by (unfold two63; lia).
      rewrite buf_list_set by (unfold ring_len, kfmt_ringBufferLen; unfold kfmt_ringBufferSize in Hw; exact Hw).
      cbn [f_ringBuffer_buffer f_ringBuffer_rIndex f_ringBuffer_wIndex set_f_ringBuffer_buffer set_f_ringBuffer_rIndex set_f_ringBuffer_wIndex rbuf rIdx wIdx].
      rewrite ring_mask_const, !gw64_small' by lia. unfold rb1, ring_size.
      replace (N.of_nat k + 1) with (N.of_nat (S k)) by lia.
      destruct (rIdx rb0 =? N.land (wIdx rb0 + 1) (kfmt_ringBufferSize - 1)); reflexivity. }
  change 0 with (N.of_nat 0).
  rewrite (L (length p) 0%nat rb fuel Hv eq_refl Hf). cbn [skipn].
  destruct (ring_write rb p) as [rb'| |]; reflexivity.
Qed.

(** the model's operations keep the index invariant (so the theorems compose over histories) *)
Lemma write_keeps_valid rb p rb' : valid rb -> ring_write rb p = Ok rb' -> valid rb'.
Proof.
  intros Hv E. destruct (write_spec p rb Hv) as (rb2 & E2 & V2 & _). rewrite E in E2. injection E2 as <-. exact V2.
Qed.

(** ---- Read ---- *)
Definition eof_err (eof : bool) : option string := if eof then Some "io.EOF"%string else None.

(** [d] = the bytes copied into p; p afterwards = d followed by the untouched rest of p *)
Definition read_result (p : list N) (o : outcome (list N * bool * ring))
  : gres (go_kfmt_ringBuffer * (N * option string * list N)) :=
  match o with
  | Ok (d, eof, rb') => GOk (to_go rb', (glen d, eof_err eof, d ++ skipn (length d) p))
  | Panic _ => GPanic
  | OutOfFuel => GFuel
  end.

Lemma map_seq_lenN {A} (f : nat -> A) n : N.of_nat (length (map f (seq 0 n))) = N.of_nat n.
Proof. rewrite map_length, seq_length. reflexivity. Qed.

(** [n] bytes from rIndex on, copied into p; [wrap] is what Read then does to rIndex *)
Lemma read_chunk rb p n (wrap : N -> N) :
  glen p < two63 -> rIdx rb + n <= ring_len -> n <= glen p ->
  match gslices 64 (buf_list (rbuf rb)) (rIdx rb) (gw 64 (rIdx rb + n)) with
  | Some t => GOk (mk_go_kfmt_ringBuffer (buf_list (rbuf rb)) (wrap (gw 64 (rIdx rb + n))) (wIdx rb),
                   (n, @None string, gcopy p t))
  | None => GPanic
  end = read_result p (d <- rslice (rbuf rb) (rIdx rb) (rIdx rb + n);;
                       Ok (d, false, mkRing (rbuf rb) (wrap (rIdx rb + n)) (wIdx rb))).
Proof.
  intros Hp Hn1 Hn2. assert (Hsz : ring_len < two63) by reflexivity. unfold two63 in *.
  rewrite gw64_small' by lia. rewrite gslices_small by (unfold two63; lia).
  rewrite buf_list_slice by lia. unfold rslice.
  destruct (N.leb_spec (rIdx rb) (rIdx rb + n)); [|lia]. destruct (N.leb_spec (rIdx rb + n) ring_len); [|lia].
  cbn [andb bind read_result eof_err]. unfold to_go. cbn [rbuf rIdx wIdx].
  replace (rIdx rb + n - rIdx rb) with n by lia.
  rewrite gcopy_short by (rewrite map_length, seq_length; unfold glen in Hn2; lia).
  unfold glen. rewrite map_seq_lenN, N2Nat.id. reflexivity.
Qed.

Theorem read_is_translation rb p : valid rb -> glen p < two63 ->
  go_kfmt_ringBuffer_Read (to_go rb) p = read_result p (ring_read rb (glen p)).
Proof.
  intros Hv Hp. pose proof Hv as [Hr Hw]. unfold SZ, ring_size in Hr, Hw.
  assert (Hsz : kfmt_ringBufferSize < 2 ^ 63) by reflexivity.
  assert (Hlen : ring_len = kfmt_ringBufferSize) by reflexivity.
  unfold go_kfmt_ringBuffer_Read, ring_read, to_go.
  cbn [f_ringBuffer_buffer f_ringBuffer_rIndex f_ringBuffer_wIndex set_f_ringBuffer_buffer set_f_ringBuffer_rIndex set_f_ringBuffer_wIndex rbuf rIdx wIdx].
  rewrite !buf_list_glen.
  rewrite (gslt_small (rIdx rb) (wIdx rb)), (gslt_small (wIdx rb) (rIdx rb)) by (unfold two63; lia).
  destruct (N.ltb_spec (rIdx rb) (wIdx rb)) as [A|A].
  - (* rIndex < wIndex: up to wIndex *)
    rewrite gsub64_small' by lia. rewrite gslt_small by (unfold two63 in *; lia).
    set (n := N.min (wIdx rb - rIdx rb) (glen p)).
    pose proof (read_chunk rb p n (fun x => x) Hp ltac:(lia) ltac:(lia)) as K. cbv beta in K.
    destruct (N.ltb_spec (glen p) (wIdx rb - rIdx rb));
      [replace (glen p) with n by lia|replace (wIdx rb - rIdx rb) with n by lia]; exact K.
  - destruct (N.ltb_spec (wIdx rb) (rIdx rb)) as [A2|A2]; [|reflexivity].
    (* rIndex > wIndex: up to the end of the buffer, where rIndex wraps to 0; rIndex = wIndex is io.EOF *)
    rewrite gsub64_small' by lia. rewrite gslt_small by (unfold two63 in *; lia).
    set (n := N.min (ring_len - rIdx rb) (glen p)).
    rewrite <- (read_chunk rb p n (fun x => if x =? ring_len then 0 else x) Hp) by lia.
    destruct (N.ltb_spec (glen p) (ring_len - rIdx rb));
      [replace (glen p) with n by lia|replace (ring_len - rIdx rb) with n by lia];
      (destruct (gslices 64 (buf_list (rbuf rb)) (rIdx rb) (gw 64 (rIdx rb + n))); [|reflexivity]);
      destruct (gw 64 (rIdx rb + n) =? ring_len); reflexivity.
Qed.

(** ---- the invariant, and the zero value ---- *)
Lemma read_keeps_valid rb plen d eof rb' : valid rb -> ring_read rb plen = Ok (d, eof, rb') -> valid rb'.
Proof.
  intros [Hr Hw]. unfold ring_read. rewrite ring_len_eq, SZ_eq.
  destruct (N.ltb_spec (rIdx rb) (wIdx rb)) as [A|A].
  - destruct (rslice _ _ _); cbn [bind]; intros E; [|discriminate|discriminate].
    injection E as _ _ <-. split; cbn [rIdx wIdx]; lia.
  - destruct (N.ltb_spec (wIdx rb) (rIdx rb)) as [B|B].
    + destruct (rslice _ _ _); cbn [bind]; intros E; [|discriminate|discriminate].
      match type of E with Ok (_, _, ?r) = _ => assert (E' : rb' = r) by congruence end.
      rewrite E'. split; cbn [rIdx wIdx]; [|exact Hw].
      destruct (N.eqb_spec (rIdx rb + N.min (SZ - rIdx rb) plen) SZ); [reflexivity|lia].
    + intros E. injection E as _ _ <-. split; assumption.
Qed.

(** the model's empty ring is the zero value of the Go struct *)
Theorem to_go_empty : to_go empty_ring = mk_go_kfmt_ringBuffer (repeat 0 (N.to_nat ring_len)) 0 0.
Proof.
  assert (H : forall l : list nat, map (fun k => mget (PositiveMap.empty N) (N.of_nat k)) l = repeat 0 (length l)).
  { induction l as [|x l IH]; [reflexivity|]. cbn [map length repeat]. rewrite IH. unfold mget. rewrite PositiveMap.gempty. reflexivity. }
  unfold to_go, empty_ring, buf_list. cbn [rbuf rIdx wIdx]. rewrite H, seq_length. reflexivity.
Qed.
