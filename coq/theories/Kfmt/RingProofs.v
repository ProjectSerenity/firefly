(** Proofs about the early ring buffer (Kfmt/Ring.v): FIFO with overwrite-oldest, capacity
    ringBufferSize-1, drained exactly once and in order by the io.Copy loop of SetOutputSink. *)
From Coq Require Import NArith ZArith List Bool Lia FMapPositive.
From Coq Require Import ZifyBool ZifyN ZifyNat.
From FF Require Import Lib.Std Lib.Word Gen.Consts_kfmt Kfmt.Fmt Kfmt.Ring.
Import ListNotations.
Local Open Scope N_scope.

(** ---- the generated constants ---- *)
(** ringBufferSize must be a power of two (this is what makes the index mask a modulo) and at most
    copy_buf_len, so that the drain loop needs one Read per segment *)
Lemma ring_size_eq : ring_size = 2 ^ N.log2 ring_size. Proof. reflexivity. Qed.
Lemma ring_len_eq : ring_len = ring_size. Proof. reflexivity. Qed.
Lemma ring_mask x : N.land x (ring_size - 1) = x mod ring_size.
Proof. rewrite ring_size_eq at 1 2. apply land_ones_mod. Qed.

(** the name under which [valid], [count] and [contents] speak of ringBufferSize *)
Definition SZ : N := ring_size.
Ltac usz := unfold SZ, ring_size, copy_buf_len, kfmt_ringBufferSize in *.
Lemma SZ_eq : ring_size = SZ. Proof. reflexivity. Qed.

(** ---- the byte array ---- *)

Lemma mget_mset m i v j : mget (mset m i v) j = if j =? i then v else mget m j.
Proof.
  unfold mget, mset. destruct (j =? i) eqn:E.
  - apply N.eqb_eq in E. subst. rewrite PositiveMap.gss. reflexivity.
  - apply N.eqb_neq in E. rewrite PositiveMap.gso; [reflexivity|].
    intros H. apply E. apply succ_pos_inj. exact H.
Qed.

(** ---- abstraction: what the ring holds, oldest first ---- *)
Definition valid (rb : ring) : Prop := rIdx rb < SZ /\ wIdx rb < SZ.
Definition count (rb : ring) : N := (wIdx rb + SZ - rIdx rb) mod SZ.
Definition contents (rb : ring) : list N :=
  map (fun j => mget (rbuf rb) ((rIdx rb + N.of_nat j) mod SZ)) (seq 0 (N.to_nat (count rb))).

Lemma capacity_eq : capacity = N.to_nat (SZ - 1). Proof. reflexivity. Qed.

Lemma contents_length rb : length (contents rb) = N.to_nat (count rb).
Proof. unfold contents. rewrite map_length, seq_length. reflexivity. Qed.

Lemma lastn_all {A} k (l : list A) : (length l <= k)%nat -> lastn k l = l.
Proof. intros H. unfold lastn. replace (length l - k)%nat with 0%nat by lia. reflexivity. Qed.

Lemma lastn_lastn_app {A} k (a b : list A) : lastn k (lastn k a ++ b) = lastn k (a ++ b).
Proof.
  destruct (Nat.le_gt_cases (length a) k) as [H|H].
  - rewrite (lastn_all k a H). reflexivity.
  - unfold lastn. rewrite !app_length, skipn_length.
    replace (length a - (length a - k) + length b - k)%nat with (length b) by lia.
    replace (length a + length b - k)%nat with ((length a - k) + length b)%nat by lia.
    rewrite <- skipn_skipn'. f_equal.
    rewrite skipn_app. replace (length a - k - length a)%nat with 0%nat by lia. reflexivity.
Qed.

Lemma map_seq_snoc {A} (f : nat -> A) s n : map f (seq s (S n)) = map f (seq s n) ++ [f (s + n)%nat].
Proof. rewrite seq_S, map_app. reflexivity. Qed.

(** ---- Write ---- *)
(** index arithmetic of a ring with read index [r] and write index [w]: it holds
    [(w + SZ - r) mod SZ] bytes, at [r], [r+1], ... (mod SZ), and the next free cell is [w] *)
Lemma idx_in r w j : r < SZ -> w < SZ -> j < (w + SZ - r) mod SZ -> (r + j) mod SZ <> w.
Proof. usz. lia. Qed.

Lemma idx_end r w : r < SZ -> w < SZ -> (r + (w + SZ - r) mod SZ) mod SZ = w.
Proof. usz. lia. Qed.

Lemma count_push r w : r < SZ -> w < SZ -> r <> (w + 1) mod SZ ->
  ((w + 1) mod SZ + SZ - r) mod SZ = (w + SZ - r) mod SZ + 1.
Proof. usz. lia. Qed.

Lemma count_full r w : w < SZ -> r = (w + 1) mod SZ -> (w + SZ - r) mod SZ = SZ - 1.
Proof. usz. lia. Qed.

Lemma write1_spec rb b : valid rb ->
  exists rb', ring_write1 rb b = Ok rb' /\ valid rb' /\ contents rb' = lastn capacity (contents rb ++ [b]).
Proof.
  intros [Hr Hw]. unfold ring_write1, rset. rewrite ring_len_eq, SZ_eq.
  destruct (N.ltb_spec (wIdx rb) SZ); [|lia]. cbn [bind]. rewrite !ring_mask, SZ_eq.
  assert (HSZ : 2 <= SZ) by discriminate.
  assert (Hmod : forall x, x mod SZ < SZ) by (intros x; apply N.mod_lt; lia).
  eexists. split; [reflexivity|].
  unfold contents at 1, count at 1. cbn [rIdx wIdx rbuf].
  destruct (N.eqb_spec (rIdx rb) ((wIdx rb + 1) mod SZ)) as [Efull|Efull].
  - (* full: the oldest byte is overwritten *)
    split; [split; cbn [rIdx wIdx]; apply Hmod|].
    assert (Hc : count rb = SZ - 1) by (apply count_full; assumption).
    rewrite <- Efull, (count_full _ (rIdx rb)) by auto.
    unfold lastn. rewrite app_length, contents_length, Hc, capacity_eq. cbn [length].
    replace (N.to_nat (SZ - 1) + 1 - N.to_nat (SZ - 1))%nat with 1%nat by lia.
    unfold contents. rewrite Hc.
    replace (N.to_nat (SZ - 1)) with (S (N.to_nat (SZ - 2))) by lia.
    rewrite map_seq_snoc. cbn [seq map app skipn]. rewrite <- seq_shift, map_map.
    assert (Hshift : forall j, ((rIdx rb + 1) mod SZ + N.of_nat j) mod SZ = (rIdx rb + N.of_nat (S j)) mod SZ).
    { intros j. rewrite N.add_mod_idemp_l by lia. f_equal. lia. }
    f_equal.
    + apply map_ext_in. intros j Hj. apply in_seq in Hj. rewrite mget_mset, Hshift.
      destruct (N.eqb_spec ((rIdx rb + N.of_nat (S j)) mod SZ) (wIdx rb)) as [Ej|]; [|reflexivity].
      apply idx_in in Ej; [contradiction|assumption..|fold (count rb); lia].
    + rewrite mget_mset, Hshift.
      replace (N.of_nat (S (0 + N.to_nat (SZ - 2)))) with (count rb) by lia.
      unfold count. rewrite idx_end, N.eqb_refl by assumption. reflexivity.
  - (* room left *)
    split; [split; cbn [rIdx wIdx]; [exact Hr|apply Hmod]|].
    rewrite count_push by assumption. fold (count rb).
    assert (Hc : count rb + 1 < SZ).
    { unfold count. rewrite <- count_push by assumption. apply Hmod. }
    rewrite lastn_all by (rewrite app_length, contents_length, capacity_eq; cbn [length]; lia).
    replace (N.to_nat (count rb + 1)) with (S (N.to_nat (count rb))) by lia.
    rewrite map_seq_snoc. unfold contents. f_equal.
    + apply map_ext_in. intros j Hj. apply in_seq in Hj. rewrite mget_mset.
      destruct (N.eqb_spec ((rIdx rb + N.of_nat j) mod SZ) (wIdx rb)) as [Ej|]; [|reflexivity].
      apply idx_in in Ej; [contradiction|assumption..|fold (count rb); lia].
    + rewrite mget_mset, Nat.add_0_l, N2Nat.id. unfold count.
      rewrite idx_end, N.eqb_refl by assumption. reflexivity.
Qed.

Lemma write_spec p : forall rb, valid rb ->
  exists rb', ring_write rb p = Ok rb' /\ valid rb' /\ contents rb' = lastn capacity (contents rb ++ p).
Proof.
  induction p as [|b p IH]; intros rb Hv.
  - exists rb. split; [reflexivity|]. split; [exact Hv|]. rewrite app_nil_r.
    symmetry. apply lastn_all. rewrite contents_length, capacity_eq. destruct Hv. unfold count in *; usz. lia.
  - destruct (write1_spec rb b Hv) as [rb1 [E1 [Hv1 Hc1]]].
    destruct (IH rb1 Hv1) as [rb2 [E2 [Hv2 Hc2]]].
    exists rb2. cbn [ring_write]. rewrite E1. cbn [bind]. split; [exact E2|]. split; [exact Hv2|].
    rewrite Hc2, Hc1, lastn_lastn_app, <- app_assoc. reflexivity.
Qed.

(** ---- Read / drain ---- *)
Lemma concat_opt_chunk (d : list N) rest : concat ((match d with [] => [] | _ => [d] end) ++ rest) = d ++ concat rest.
Proof. destruct d; reflexivity. Qed.

Lemma map_seq_shift {A} (f : nat -> A) s n : map f (seq s n) = map (fun k => f (s + k)%nat) (seq 0 n).
Proof.
  revert s. induction n as [|n IH]; intros s; [reflexivity|]. cbn [seq map].
  rewrite Nat.add_0_r. f_equal. rewrite IH. rewrite <- seq_shift, map_map.
  apply map_ext. intros k. f_equal. lia.
Qed.

Lemma drain_spec rb : valid rb ->
  exists cs rb', drain drain_fuel rb = Ok (cs, rb') /\ concat cs = contents rb /\
                 valid rb' /\ contents rb' = [] /\ drain drain_fuel rb' = Ok ([], rb').
Proof.
  intros [Hr Hw].
  assert (Hempty : forall m w, w < SZ ->
            drain drain_fuel (mkRing m w w) = Ok ([], mkRing m w w) /\ contents (mkRing m w w) = []).
  { intros m w Hlt. split.
    - unfold drain_fuel. cbn [drain]. unfold ring_read. cbn [rIdx wIdx]. rewrite N.ltb_irrefl. reflexivity.
    - unfold contents, count. cbn [rIdx wIdx]. replace ((w + SZ - w) mod SZ) with 0 by (usz; lia). reflexivity. }
  assert (Hread1 : forall m r w, r < w -> w < SZ ->
            ring_read (mkRing m r w) copy_buf_len =
              Ok (map (fun k => mget m (r + N.of_nat k)) (seq 0 (N.to_nat (w - r))), false, mkRing m w w)).
  { intros m r w Hlt Hws. unfold ring_read, rslice. cbn [rIdx wIdx rbuf].
    destruct (r <? w) eqn:E; [|lia].
    replace (N.min (w - r) copy_buf_len) with (w - r) by (unfold copy_buf_len in *; usz; lia).
    rewrite ring_len_eq, SZ_eq.
    destruct ((r <=? r + (w - r)) && (r + (w - r) <=? SZ)) eqn:E2; [|usz; lia].
    cbn [bind]. repeat f_equal; lia. }
  destruct rb as [m r w]. cbn [rIdx wIdx] in *.
  destruct (N.lt_trichotomy r w) as [Hlt | [Heq | Hgt]].
  - (* one segment *)
    exists [map (fun k => mget m (r + N.of_nat k)) (seq 0 (N.to_nat (w - r)))], (mkRing m w w).
    destruct (Hempty m w Hw) as [He1 He2].
    split; [|split; [|split; [split; assumption|split; assumption]]].
    + unfold drain_fuel. cbn [drain]. rewrite Hread1 by assumption. cbn [bind].
      unfold ring_read. cbn [rIdx wIdx]. rewrite N.ltb_irrefl. cbn [bind fst snd app].
      destruct (seq 0 (N.to_nat (w - r))) eqn:Es; [|reflexivity].
      exfalso. apply (f_equal (@length nat)) in Es. rewrite seq_length in Es. simpl in Es. lia.
    + cbn [concat]. rewrite app_nil_r. unfold contents, count. cbn [rIdx wIdx rbuf].
      replace ((w + SZ - r) mod SZ) with (w - r) by (usz; lia).
      apply map_ext_in. intros j Hj. apply in_seq in Hj. f_equal. usz. lia.
  - subst w. exists [], (mkRing m r r). destruct (Hempty m r Hr) as [He1 He2].
    split; [exact He1|]. split; [rewrite He2; reflexivity|]. split; [split; assumption|]. split; assumption.
  - (* wrapped: [r, SZ) then [0, w) *)
    set (d1 := map (fun k => mget m (r + N.of_nat k)) (seq 0 (N.to_nat (SZ - r)))).
    set (d2 := map (fun k => mget m (0 + N.of_nat k)) (seq 0 (N.to_nat (w - 0)))).
    assert (Hr1 : ring_read (mkRing m r w) copy_buf_len = Ok (d1, false, mkRing m 0 w)).
    { unfold ring_read, rslice. cbn [rIdx wIdx rbuf].
      destruct (r <? w) eqn:E; [lia|]. destruct (w <? r) eqn:E'; [|lia].
      rewrite ring_len_eq, SZ_eq.
      replace (N.min (SZ - r) copy_buf_len) with (SZ - r) by (unfold copy_buf_len in *; usz; lia).
      destruct ((r <=? r + (SZ - r)) && (r + (SZ - r) <=? SZ)) eqn:E2; [|usz; lia].
      cbn [bind]. destruct (r + (SZ - r) =? SZ) eqn:E3; [|usz; lia].
      unfold d1. replace (r + (SZ - r) - r) with (SZ - r) by lia. reflexivity. }
    destruct (Hempty m w Hw) as [He1 He2].
    assert (Hcont : contents (mkRing m r w) = d1 ++ (if w =? 0 then [] else d2)).
    { unfold contents, count. cbn [rIdx wIdx rbuf].
      replace ((w + SZ - r) mod SZ) with ((SZ - r) + w) by (usz; lia).
      rewrite N2Nat.inj_add, seq_app, map_app. f_equal.
      - apply map_ext_in. intros j Hj. apply in_seq in Hj. f_equal. usz. lia.
      - rewrite map_seq_shift. destruct (w =? 0) eqn:Ew0.
        + apply N.eqb_eq in Ew0. subst w. reflexivity.
        + unfold d2. rewrite N.sub_0_r. apply map_ext_in. intros j Hj. apply in_seq in Hj. f_equal. usz. lia. }
    destruct (w =? 0) eqn:Ew0.
    + apply N.eqb_eq in Ew0. subst w.
      exists (match d1 with [] => [] | _ => [d1] end), (mkRing m 0 0).
      split; [|split; [|split; [split; assumption|split; assumption]]].
      * unfold drain_fuel. cbn [drain]. rewrite Hr1. cbn [bind].
        unfold ring_read. cbn [rIdx wIdx]. cbn [N.ltb N.compare bind fst snd]. rewrite app_nil_r. reflexivity.
      * rewrite Hcont, app_nil_r. pose proof (concat_opt_chunk d1 []) as C. rewrite app_nil_r in C. cbn [concat] in C.
        rewrite app_nil_r in C. exact C.
    + apply N.eqb_neq in Ew0.
      exists ((match d1 with [] => [] | _ => [d1] end) ++ (match d2 with [] => [] | _ => [d2] end)), (mkRing m w w).
      split; [|split; [|split; [split; assumption|split; assumption]]].
      * unfold drain_fuel. cbn [drain]. rewrite Hr1. cbn [bind].
        rewrite (Hread1 m 0 w) by lia. cbn [bind].
        unfold ring_read. cbn [rIdx wIdx]. rewrite N.ltb_irrefl. cbn [bind fst snd]. rewrite app_nil_r. reflexivity.
      * rewrite Hcont, concat_opt_chunk. f_equal.
        pose proof (concat_opt_chunk d2 []) as C. rewrite app_nil_r in C. cbn [concat] in C.
        rewrite app_nil_r in C. exact C.
Qed.

(** ---- the FIFO theorem ---- *)
Lemma valid_empty : valid empty_ring.
Proof. split; reflexivity. Qed.
Lemma contents_empty : contents empty_ring = [].
Proof. reflexivity. Qed.

Fixpoint ring_writes (rb : ring) (ps : list (list N)) : outcome ring :=
  match ps with
  | [] => Ok rb
  | p :: r => rb' <- ring_write rb p ;; ring_writes rb' r
  end.

Lemma writes_spec ps : forall rb, valid rb ->
  exists rb', ring_writes rb ps = Ok rb' /\ valid rb' /\ contents rb' = lastn capacity (contents rb ++ concat ps).
Proof.
  induction ps as [|p ps IH]; intros rb Hv.
  - destruct (write_spec [] rb Hv) as [rb' [E [Hv' Hc]]]. cbn [ring_write] in E. inversion E; subst rb'.
    exists rb. split; [reflexivity|]. split; [exact Hv|exact Hc].
  - destruct (write_spec p rb Hv) as [rb1 [E1 [Hv1 Hc1]]].
    destruct (IH rb1 Hv1) as [rb2 [E2 [Hv2 Hc2]]].
    exists rb2. cbn [ring_writes]. rewrite E1. cbn [bind]. split; [exact E2|]. split; [exact Hv2|].
    rewrite Hc2, Hc1, lastn_lastn_app. cbn [concat]. rewrite <- app_assoc. reflexivity.
Qed.

Lemma ring_fifo_any rb ps : valid rb ->
  exists rb1 cs rb2,
    ring_writes rb ps = Ok rb1 /\
    drain drain_fuel rb1 = Ok (cs, rb2) /\
    concat cs = lastn capacity (contents rb ++ concat ps) /\
    valid rb2 /\ contents rb2 = [] /\ drain drain_fuel rb2 = Ok ([], rb2).
Proof.
  intros Hv. destruct (writes_spec ps rb Hv) as [rb1 [E1 [Hv1 Hc1]]].
  destruct (drain_spec rb1 Hv1) as [cs [rb2 [E2 [Hc2 [Hv2 [He2 Hd2]]]]]].
  exists rb1, cs, rb2. repeat split; try assumption; try (destruct Hv2; assumption). rewrite Hc2. exact Hc1.
Qed.
