(** The hand-written model of kernel/kfmt/fmt.go (Kfmt/Fmt.v: [fmt_repeat], [fmt_bool], [fmt_string], [fmt_int])
    against the Gallina translation that gen/gotrans regenerates from fmt.go on every run (Gen/Trans_kfmt_fmt.v).

    In the translation the package-level buffers numFmtBuf / singleByte are fields of the record [go_kfmt_world],
    an interface{} value is a [gany] (Lib/GoOpsFmt.v), Go's int / int64 are their two's complement representatives in
    [0, 2^64), and every call [doWrite(w, p)] is the event [GCall "doWrite" [GNum (gref w); GBytes p]] pushed on the
    world's trace (most recent first).  The model computes on Z and returns the list of chunks written.

    Shape of the lemmas: whenever the model's run ends with [Ok] (which Kfmt/FmtProofs.v and Kfmt/FmtScanProofs.v prove for every input), the
    translated function, with enough fuel, returns [GOk], has pushed exactly the model's chunks as doWrite events, in
    order, and leaves the model's numFmtBuf. *)
From Coq Require Import NArith ZArith String List Bool Lia.
From Coq Require Import ZifyBool ZifyN ZifyNat.
From FF Require Import Lib.Std Lib.Word Lib.GoOps Lib.GoOpsExt Lib.GoOpsFmt Gen.Consts_kfmt Gen.Trans_kfmt_fmt.
From FF Require Import Kfmt.Fmt Kfmt.FmtSpec Kfmt.FmtProofs Kfmt.FmtScanProofs.
Import ListNotations.
Local Open Scope N_scope.

(** ---- representations ---- *)
(** the Go int denoted by a two's complement representative *)
Definition sz (p : N) : Z :=
  if p <? 9223372036854775808 then Z.of_N p else (Z.of_N p - 18446744073709551616)%Z.
(** the representative of a Go int *)
Definition zi (z : Z) : N := Z.to_N (z mod 18446744073709551616).

Definition mkw (tr : list gcall) (buf sb : list N) : go_kfmt_world := mk_go_kfmt_world tr buf sb.
Definition ev (w : bool) (c : chunk) : gcall := GCall "doWrite" [GNum (gref w); GBytes c].
(** the trace after the chunks [cs] were written (most recent first) *)
Definition pushed (w : bool) (cs : list chunk) (tr : list gcall) : list gcall := rev (map (ev w) cs) ++ tr.

Ltac wsimp :=
  cbn [f_world_trace f_world_numFmtBuf f_world_singleByte set_f_world_trace set_f_world_numFmtBuf
       set_f_world_singleByte mkw].

Lemma two64_lit : 2 ^ 64 = 18446744073709551616. Proof. reflexivity. Qed.
Lemma two63_lit : two63 = 9223372036854775808. Proof. reflexivity. Qed.

(** the order of Go ints is the order of the integers they denote: the bias shifts [sz] by 2^63 *)
Lemma gsbias_sz a : a < 2 ^ 64 -> Z.of_N (gsbias 64 a) = (sz a + 9223372036854775808)%Z.
Proof.
  rewrite two64_lit, gsbias64. intros Ha. unfold sz. destruct (N.ltb_spec a 9223372036854775808); lia.
Qed.

Lemma gslt_sz a b : a < 2 ^ 64 -> b < 2 ^ 64 -> gslt 64 a b = (sz a <? sz b)%Z.
Proof.
  intros Ha Hb. unfold gslt. pose proof (gsbias_sz a Ha). pose proof (gsbias_sz b Hb).
  destruct (N.ltb_spec (gsbias 64 a) (gsbias 64 b)); destruct (Z.ltb_spec (sz a) (sz b)); try reflexivity; lia.
Qed.

Lemma gsle_sz a b : a < 2 ^ 64 -> b < 2 ^ 64 -> gsle 64 a b = (sz a <=? sz b)%Z.
Proof.
  intros Ha Hb. unfold gsle. pose proof (gsbias_sz a Ha). pose proof (gsbias_sz b Hb).
  destruct (N.leb_spec (gsbias 64 a) (gsbias 64 b)); destruct (Z.leb_spec (sz a) (sz b)); try reflexivity; lia.
Qed.

Lemma sz_small p : p < 9223372036854775808 -> sz p = Z.of_N p.
Proof. intros H. unfold sz. destruct (N.ltb_spec p 9223372036854775808); [reflexivity|lia]. Qed.

Lemma sz_zi z : (- 9223372036854775808 <= z < 9223372036854775808)%Z -> sz (zi z) = z.
Proof.
  intros H. unfold sz, zi.
  destruct (N.ltb_spec (Z.to_N (z mod 18446744073709551616)) 9223372036854775808); lia.
Qed.

Lemma zi_lt z : zi z < 2 ^ 64.
Proof. rewrite two64_lit. unfold zi. lia. Qed.

Lemma zi_small z : (0 <= z < 18446744073709551616)%Z -> zi z = Z.to_N z.
Proof. intros H. unfold zi. rewrite Z.mod_small by lia. reflexivity. Qed.

Lemma ltb_of_N a b : (Z.of_N a <? Z.of_N b)%Z = (a <? b).
Proof. unfold Z.ltb, N.ltb. rewrite N2Z.inj_compare. reflexivity. Qed.

(** [i++] on a Go int that indexes a slice *)
Lemma gw64_succ i : N.of_nat i < 9223372036854775808 -> gw 64 (N.of_nat i + 1) = N.of_nat (S i).
Proof. intros H. rewrite gw64_small' by (rewrite two64_lit; lia). lia. Qed.

(** ---- buffer accesses: the model's bounds-checked operations and the translation's ---- *)
Lemma bset_gsets buf r v b : r < 9223372036854775808 ->
  bset buf (Z.of_N r) v = Ok b -> gsets 64 buf r v = Some b.
Proof.
  intros Hr. rewrite gsets_small by (rewrite two63_lit; exact Hr). unfold bset, gset, glen.
  destruct (Z.ltb_spec (Z.of_N r) 0); [lia|]. replace (Z.to_nat (Z.of_N r)) with (N.to_nat r) by lia.
  destruct (Nat.ltb_spec (N.to_nat r) (length buf)); [|discriminate].
  intros E. injection E as <-. destruct (N.ltb_spec r (N.of_nat (length buf))); [reflexivity|lia].
Qed.

Lemma bget_gidxs buf r c : r < 9223372036854775808 ->
  bget buf (Z.of_N r) = Ok c -> gidxs 64 buf r = Some c.
Proof.
  intros Hr. rewrite gidxs_small by (rewrite two63_lit; exact Hr). unfold bget, gidx.
  destruct (Z.ltb_spec (Z.of_N r) 0); [lia|]. replace (Z.to_nat (Z.of_N r)) with (N.to_nat r) by lia.
  destruct (nth_error buf (N.to_nat r)); [|discriminate]. intros E. injection E as <-. reflexivity.
Qed.

Lemma bset_len buf i v b : bset buf i v = Ok b -> length b = length buf /\ (0 <= i < Z.of_nat (length buf))%Z.
Proof.
  unfold bset. destruct (Z.ltb_spec i 0); [discriminate|].
  destruct (Nat.ltb_spec (Z.to_nat i) (length buf)); [|discriminate].
  intros E. injection E as <-. split; [apply upd_length; exact H0|lia].
Qed.

Lemma bget_range buf i c : bget buf i = Ok c -> (0 <= i < Z.of_nat (length buf))%Z.
Proof.
  unfold bget. destruct (Z.ltb_spec i 0); [discriminate|].
  destruct (nth_error buf (Z.to_nat i)) eqn:E; [|discriminate]. intros _.
  assert (Z.to_nat i < length buf)%nat by (apply nth_error_Some; congruence). lia.
Qed.

Lemma bslice_gslices buf e o : e < 9223372036854775808 ->
  bslice buf (Z.of_N e) = Ok o -> gslices 64 buf 0 e = Some o.
Proof.
  intros He. rewrite gslices_small by (rewrite two63_lit; lia). unfold bslice, gslice, glen.
  destruct (Z.ltb_spec (Z.of_N e) 0); [lia|]. replace (Z.to_nat (Z.of_N e)) with (N.to_nat e) by lia.
  destruct (Nat.leb_spec (N.to_nat e) (length buf)); [|discriminate].
  intros E. injection E as <-.
  destruct (N.leb_spec 0 e); [|lia]. destruct (N.leb_spec e (N.of_nat (length buf))); [|lia].
  cbn [andb skipn N.to_nat]. rewrite N.sub_0_r. reflexivity.
Qed.

(** ---- fmtInt: the four loops ---- *)
Definition buf_ok (buf : list N) : Prop := length buf = buf_len.

(** numFmtBuf has 33 bytes: the indices that occur are 0 .. 33, and 34 iterations serve every loop *)
Lemma buf_len_33 : buf_len = 33%nat. Proof. reflexivity. Qed.

(** [for right < maxBufSize { .. }]: the digits, least significant first *)
Lemma digit_sim base dv e l pc pl sv g w tr sb : forall f buf r uval rem buf' r',
  buf_ok buf -> r <= 33 -> uval < 2 ^ 64 ->
  digit_loop f dv buf (Z.of_N r) uval = Ok (buf', r') ->
  exists rem' uval',
    gloop f (go_kfmt_fmtInt_loop3 base dv e l pc pl sv g w) (mkw tr buf sb, rem, r, uval)
      = GOk (inl (mkw tr buf' sb, rem', Z.to_N r', uval')) /\ buf_ok buf' /\ (0 <= r' <= 33)%Z.
Proof.
  induction f as [|f IH]; intros buf r uval rem buf' r' Hb Hr Hu; [discriminate|].
  cbn [digit_loop]. rewrite gloop_S. unfold go_kfmt_fmtInt_loop3 at 1. cbv beta iota zeta. wsimp.
  rewrite gslt_small by (rewrite two63_lit; try reflexivity; lia).
  change maxBufSize with (Z.of_N kfmt_maxBufSize). rewrite ltb_of_N.
  assert (Hm : kfmt_maxBufSize = 32) by reflexivity.
  destruct (N.ltb_spec r kfmt_maxBufSize) as [Hlt|Hge].
  2:{ intros E. injection E as <- <-. exists rem, uval. rewrite N2Z.id. split; [reflexivity|]. split; [exact Hb|lia]. }
  unfold gmod, gdiv. destruct (N.eqb_spec dv 0) as [Hd|Hd]; [discriminate|].
  intros E. apply bind_Ok in E as (buf1 & Eb & E).
  assert (Hb1 : buf_ok buf1) by (unfold buf_ok in *; rewrite <- Hb; apply (bset_len _ _ _ _ Eb)).
  apply bset_gsets in Eb; [|lia].
  pose proof (N.mod_le uval dv Hd) as Hrem.
  assert (Hq : uval / dv < 2 ^ 64).
  { eapply N.le_lt_trans; [|exact Hu]. rewrite <- (N.div_1_r uval) at 2. apply N.div_le_compat_l. lia. }
  (* from here on quotient and remainder are just two numbers below 2^64 *)
  assert (Hm64 : uval mod dv < 2 ^ 64) by (eapply N.le_lt_trans; eassumption).
  set (m := uval mod dv) in *. set (q := uval / dv) in *. clearbody m q. clear Hrem Hu uval.
  (* the digit character: '0'+m or 'a'+(m-10), as in [digit_char] *)
  unfold digit_char in Eb. change w8 with (gw 8) in Eb. revert Eb.
  destruct (N.ltb_spec m 10) as [H10|H10]; intros Eb; [|rewrite gsub64_small' by assumption];
    rewrite Eb; wsimp; clear Eb.
  all: rewrite (gw64_small' (r + 1)) by (rewrite two64_lit; lia).
  all: replace (Z.of_N r + 1)%Z with (Z.of_N (r + 1)) in E by lia.
  all: destruct (N.eqb_spec q 0) as [Hz|Hz];
    [ injection E as <- <-; exists m, q; rewrite N2Z.id; split; [reflexivity|]; split; [exact Hb1|lia]
    | apply IH with (rem := m) in E; [exact E|exact Hb1|lia|exact Hq] ].
Qed.

Lemma gsub_zi a b : gsub 64 (zi a) (zi b) = zi (a - b).
Proof.
  unfold gsub, gw, zi. change (2 ^ 64) with 18446744073709551616.
  apply N2Z.inj. rewrite N2Z.inj_mod, N2Z.inj_sub, N2Z.inj_add, N2Z.inj_mod, !Z2N.id.
  - change (Z.of_N 18446744073709551616) with 18446744073709551616%Z.
    rewrite (Z.mod_small (b mod _)) by (apply Z.mod_pos_bound; lia).
    replace (a mod 18446744073709551616 + 18446744073709551616 - b mod 18446744073709551616)%Z
      with ((a mod 18446744073709551616 - b mod 18446744073709551616) + 1 * 18446744073709551616)%Z by lia.
    rewrite Z.mod_add by lia. symmetry. apply Zminus_mod.
  - apply Z.mod_pos_bound; lia.
  - apply Z.mod_pos_bound; lia.
  - apply Z.mod_pos_bound; lia.
  - pose proof (Z.mod_pos_bound b 18446744073709551616 ltac:(lia)).
    pose proof (Z.mod_pos_bound a 18446744073709551616 ltac:(lia)). lia.
Qed.

Lemma gadd_zi a b : gw 64 (zi a + zi b) = zi (a + b).
Proof.
  unfold gw, zi. change (2 ^ 64) with 18446744073709551616.
  apply N2Z.inj. rewrite N2Z.inj_mod, N2Z.inj_add, !Z2N.id; try (apply Z.mod_pos_bound; lia).
  change (Z.of_N 18446744073709551616) with 18446744073709551616%Z. symmetry. apply Zplus_mod.
Qed.

Lemma zi_of_N r : r < 2 ^ 64 -> zi (Z.of_N r) = r.
Proof. rewrite two64_lit. intros H. rewrite zi_small by lia. apply N2Z.id. Qed.

(** [for ; right-left < padLen; right++ { numFmtBuf[right] = padCh }] with left = 0 *)
Lemma pad_sim base dv e pc pl rem sv uv g w tr sb : forall f buf r buf' r',
  buf_ok buf -> r <= 33 -> pl < 2 ^ 64 ->
  pad_loop f buf (Z.of_N r) (sz pl) pc = Ok (buf', r') ->
  gloop f (go_kfmt_fmtInt_loop4 base dv e 0 pc pl rem sv uv g w) (mkw tr buf sb, r)
    = GOk (inl (mkw tr buf' sb, Z.to_N r')) /\ buf_ok buf' /\ (0 <= r' <= 33)%Z.
Proof.
  induction f as [|f IH]; intros buf r buf' r' Hb Hr Hp; [discriminate|].
  cbn [pad_loop]. rewrite gloop_S. unfold go_kfmt_fmtInt_loop4 at 1. cbv beta iota zeta. wsimp.
  assert (H0 : gsub 64 r 0 = r).
  { unfold gsub, gw. change (2 ^ 64) with 18446744073709551616. rewrite (N.mod_small 0) by lia.
    replace (r + 18446744073709551616 - 0) with (r + 1 * 18446744073709551616) by lia.
    rewrite N.mod_add by lia. apply N.mod_small. lia. }
  rewrite H0, gslt_sz by (try exact Hp; rewrite two64_lit; lia).
  rewrite (sz_small r) by lia. rewrite Z.sub_0_r.
  destruct (Z.ltb_spec (Z.of_N r) (sz pl)) as [Hlt|Hge].
  2:{ intros E. injection E as <- <-. rewrite N2Z.id. split; [reflexivity|]. split; [exact Hb|lia]. }
  destruct (bset buf (Z.of_N r) pc) as [buf1| |] eqn:Eb; cbn [bind]; try discriminate.
  pose proof (bset_len _ _ _ _ Eb) as [Hl1 Hr1]. apply bset_gsets in Eb; [|lia]. rewrite Eb. wsimp.
  unfold buf_ok in Hb. rewrite buf_len_33 in Hb.
  rewrite (gw64_small' (r + 1)) by (rewrite two64_lit; lia).
  replace (Z.of_N r + 1)%Z with (Z.of_N (r + 1)) by lia.
  intros E. apply IH in E; [exact E|unfold buf_ok; rewrite buf_len_33; lia|lia|exact Hp].
Qed.

(** [for end = right - 1; numFmtBuf[end] == ' '; end-- {}] *)
Lemma sign_sim base dv l pc pl rem r0 sv uv g w tr sb : forall f buf e e',
  buf_ok buf -> (-1 <= e <= 33)%Z ->
  sign_search f buf e = Ok e' ->
  gloop f (go_kfmt_fmtInt_loop5 base dv l pc pl rem r0 sv uv g w) (mkw tr buf sb, zi e)
    = GOk (inl (mkw tr buf sb, zi e')) /\ (0 <= e' <= e)%Z.
Proof.
  induction f as [|f IH]; intros buf e e' Hb He; [discriminate|].
  cbn [sign_search]. rewrite gloop_S. unfold go_kfmt_fmtInt_loop5 at 1. cbv beta iota zeta. wsimp.
  destruct (bget buf e) as [c| |] eqn:Eg; cbn [bind]; try discriminate.
  pose proof (bget_range _ _ _ Eg) as Hr. 
  rewrite (zi_small e) by lia. rewrite <- (Z2N.id e) in Eg by lia.
  apply bget_gidxs in Eg; [|lia]. rewrite Eg.
  destruct (N.eqb_spec c 32) as [Hc|Hc].
  - intros E. change 1 with (zi 1) at 1. rewrite <- (zi_small e) by lia. rewrite gsub_zi.
    apply IH in E; [|exact Hb|lia]. destruct E as [E1 E2]. split; [exact E1|lia].
  - intros E. injection E as <-. rewrite <- (zi_small e) by lia. split; [reflexivity|lia].
Qed.

(** [for right = right - 1; left < right; left, right = left+1, right-1 { swap }] *)
Lemma rev_sim base dv e pc pl rem sv uv g w tr sb : forall f buf l r buf',
  buf_ok buf -> (0 <= l <= 34)%Z -> (-1 <= r <= 33)%Z ->
  reverse_loop f buf l r = Ok buf' ->
  exists l' r',
    gloop f (go_kfmt_fmtInt_loop6 base dv e pc pl rem sv uv g w) (mkw tr buf sb, zi l, zi r)
      = GOk (inl (mkw tr buf' sb, l', r')) /\ buf_ok buf'.
Proof.
  induction f as [|f IH]; intros buf l r buf' Hb Hl Hr; [discriminate|].
  cbn [reverse_loop]. rewrite gloop_S. unfold go_kfmt_fmtInt_loop6 at 1. cbv beta iota zeta. wsimp.
  rewrite gslt_sz by apply zi_lt. rewrite !sz_zi by lia.
  destruct (Z.ltb_spec l r) as [Hlt|Hge].
  2:{ intros E. injection E as <-. exists (zi l), (zi r). split; [reflexivity|exact Hb]. }
  destruct (bget buf l) as [a| |] eqn:Ea; cbn [bind]; try discriminate.
  destruct (bget buf r) as [b| |] eqn:Eb; cbn [bind]; try discriminate.
  destruct (bset buf l b) as [buf1| |] eqn:E1; cbn [bind]; try discriminate.
  destruct (bset buf1 r a) as [buf2| |] eqn:E2; cbn [bind]; try discriminate.
  pose proof (bset_len _ _ _ _ E1) as [L1 _]. pose proof (bset_len _ _ _ _ E2) as [L2 _].
  rewrite (zi_small l), (zi_small r) by lia.
  rewrite <- (Z2N.id l) in Ea, E1 by lia. rewrite <- (Z2N.id r) in Eb, E2 by lia.
  apply bget_gidxs in Ea; [|lia]. apply bget_gidxs in Eb; [|lia].
  apply bset_gsets in E1; [|lia]. apply bset_gsets in E2; [|lia].
  rewrite Eb, Ea, E1. wsimp. rewrite E2. wsimp.
  rewrite <- (zi_small l), <- (zi_small r) by lia.
  change 1 with (zi 1). rewrite gadd_zi, gsub_zi.
  intros E. apply IH in E; [exact E|unfold buf_ok in *; lia|lia|lia].
Qed.

Lemma loop7_is_loop6 : go_kfmt_fmtInt_loop7 = go_kfmt_fmtInt_loop6.
Proof. reflexivity. Qed.

Lemma zi_sz s : s < 2 ^ 64 -> zi (sz s) = s.
Proof.
  rewrite two64_lit. intros H. unfold zi, sz.
  destruct (N.ltb_spec s 9223372036854775808).
  - rewrite Z.mod_small by lia. apply N2Z.id.
  - replace (Z.of_N s - 18446744073709551616)%Z with (Z.of_N s + (-1) * 18446744073709551616)%Z by lia.
    rewrite Z.mod_add by lia. rewrite Z.mod_small by lia. apply N2Z.id.
Qed.

Lemma zi_eqb a b : (-1 <= a <= 40)%Z -> (-1 <= b <= 40)%Z -> (zi a =? zi b) = (a =? b)%Z.
Proof.
  intros Ha Hb. destruct (Z.eqb_spec a b) as [->|Hne]; [apply N.eqb_refl|].
  apply N.eqb_neq. intros E. apply Hne. rewrite <- (sz_zi a), <- (sz_zi b) by lia. rewrite E. reflexivity.
Qed.

(** the magnitude fmtInt prints, as the translation computes it from sval / uval *)
Definition tmag (s u : N) : N :=
  if (sz s <? 0)%Z then zi (- sz s) else if (0 <? sz s)%Z then s else u.

(** everything after the type switch: sign handling, the four loops, the final doWrite *)
Lemma fmtInt_tail_sim fuel base dv pc pl g w tr buf sb s u cs buf' :
  buf_ok buf -> pl < 2 ^ 64 -> s < 2 ^ 64 -> u < 2 ^ 64 -> (34 <= fuel)%nat ->
  int_core buf dv pc (sz pl) (sz s <? 0)%Z (tmag s u) = Ok (cs, buf') ->
  go_kfmt_fmtInt_k8 fuel base dv 0 0 pc pl 0 0 g w (mkw tr buf sb, s, u)
    = GOk (mkw (pushed w cs tr) buf' sb, tt) /\ buf_ok buf'.
Proof.
  intros Hb Hp Hs Hu Hf. unfold go_kfmt_fmtInt_k8. cbv beta iota zeta.
  assert (Hz0 : sz 0 = 0%Z) by reflexivity.
  rewrite !(gslt_sz s 0), (gslt_sz 0 s) by (try exact Hs; reflexivity). rewrite Hz0.
  assert (Hmag : (if (sz s <? 0)%Z then gw 64 (gsub 64 0 s) else if (0 <? sz s)%Z then gw 64 s else u) = tmag s u).
  { unfold tmag. destruct (sz s <? 0)%Z.
    - rewrite <- (zi_sz s) at 1 by exact Hs. change 0 with (zi 0) at 1. rewrite gsub_zi.
      rewrite gw64_small' by apply zi_lt. reflexivity.
    - destruct (0 <? sz s)%Z; [apply gw64_small'; exact Hs|reflexivity]. }
  rewrite Hmag. clear Hmag.
  assert (Hmlt : tmag s u < 2 ^ 64).
  { unfold tmag. destruct (sz s <? 0)%Z; [apply zi_lt|]. destruct (0 <? sz s)%Z; assumption. }
  unfold int_core, int_tail. intros H.
  apply bind_Ok in H as ([b1 r1] & E1 & H). apply bind_Ok in H as ([b2 r2] & E2 & H). cbn [fst snd] in E2, H.
  change 0%Z with (Z.of_N 0) in E1.
  destruct (digit_sim base dv 0 0 pc pl s g w tr sb _ _ 0 _ 0 _ _ Hb ltac:(lia) Hmlt E1) as [rem' [uval' [G1 [Hb1 Hr1]]]].
  rewrite (gloop_fuel_ok _ _ fuel _ _ G1) by (change (Z.to_nat maxBufSize) with 32%nat; lia).
  assert (Hlen : length buf = 33%nat) by exact Hb. rewrite Hlen in *.
  rewrite <- (Z2N.id r1) in E2 by lia.
  destruct (pad_sim base dv 0 pc pl rem' s uval' g w tr sb _ _ (Z.to_N r1) _ _ Hb1 ltac:(lia) Hp E2) as [G2 [Hb2 Hr2]].
  rewrite (gloop_fuel_ok _ _ fuel _ _ G2) by lia.
  assert (Hr2z : Z.to_N r2 = zi r2) by (rewrite zi_small by lia; reflexivity).
  clear E1 G1 E2 G2 Hb Hb1 Hmlt Hlen. revert H. destruct (sz s <? 0)%Z; intros H.
  - (* negative: look for the last blank, place the sign *)
    apply bind_Ok in H as ([b3 right'] & H3 & H). apply bind_Ok in H3 as (e' & E3 & H3).
    apply bind_Ok in H3 as (b3' & E4 & H3). injection H3 as -> <-. cbn [fst snd] in H.
    apply bind_Ok in H as (b4 & E5 & H). apply bind_Ok in H as (o & E6 & H). injection H as <- <-.
    destruct (sign_sim base dv 0 pc pl rem' (zi r2) s uval' g w tr sb _ _ (r2 - 1)%Z _ Hb2 ltac:(lia) E3) as [G3 He'].
    rewrite Hr2z. change 1 with (zi 1). rewrite gsub_zi.
    rewrite (gloop_fuel_ok _ _ fuel _ _ G3) by lia.
    rewrite zi_eqb by lia. rewrite !gadd_zi.
    change (gw 8 45) with 45.
    pose proof (bset_len _ _ _ _ E4) as [L3 R3].
    rewrite <- (Z2N.id (e' + 1)) in E4 by lia. apply bset_gsets in E4; [|lia].
    rewrite (zi_small (e' + 1)) by lia. wsimp. rewrite E4. wsimp.
    set (right' := if (e' =? r2 - 1)%Z then (r2 + 1)%Z else r2) in *.
    replace (if (e' =? r2 - 1)%Z then zi (r2 + 1) else zi r2) with (zi right') by (unfold right'; destruct (e' =? r2 - 1)%Z; reflexivity).
    assert (Hr' : (0 <= right' <= 34)%Z) by (unfold right'; destruct (e' =? r2 - 1)%Z; lia).
    rewrite gsub_zi.
    assert (Hb3 : buf_ok b3) by (unfold buf_ok in *; lia).
    destruct (rev_sim base dv (zi right') pc pl rem' s uval' g w tr sb _ _ 0%Z (right' - 1)%Z _ Hb3 ltac:(lia) ltac:(lia) E5) as [l' [r' [G5 Hb4]]].
    change (zi 0%Z) with 0 in G5. change (set_f_world_numFmtBuf (mkw tr b2 sb) b3) with (mkw tr b3 sb).
    rewrite (gloop_fuel_ok _ _ fuel _ _ G5) by lia.
    rewrite <- (Z2N.id right') in E6 by lia. apply bslice_gslices in E6; [|lia].
    rewrite (zi_small right') by lia. wsimp. rewrite E6. wsimp.
    split; [reflexivity|exact Hb4].
  - cbn [bind fst snd] in H.
    apply bind_Ok in H as (b4 & E5 & H). apply bind_Ok in H as (o & E6 & H). injection H as <- <-.
    rewrite loop7_is_loop6.
    destruct (rev_sim base dv (Z.to_N r2) pc pl rem' s uval' g w tr sb _ _ 0%Z (r2 - 1)%Z _ Hb2 ltac:(lia) ltac:(lia) E5) as [l' [r' [G5 Hb4]]].
    change (zi 0%Z) with 0 in G5. rewrite <- gsub_zi, <- Hr2z in G5. change (zi 1) with 1 in G5.
    rewrite (gloop_fuel_ok _ _ fuel _ _ G5) by lia.
    rewrite <- (Z2N.id r2) in E6 by lia. apply bslice_gslices in E6; [|lia].
    wsimp. rewrite E6. wsimp.
    split; [reflexivity|exact Hb4].
Qed.

(** ---- interface{} values: the translation's [gany] and the model's [arg] ---- *)
(** the integer denoted by the [bits]-bit two's complement representative [n] *)
Definition sgn (bits n : N) : Z := if n <? 2 ^ (bits - 1) then Z.of_N n else (Z.of_N n - Z.of_N (2 ^ bits))%Z.

Definition of_gany (g : gany) : arg :=
  match g with
  | GAU8 n => AInt U8 (Z.of_N n) | GAU16 n => AInt U16 (Z.of_N n) | GAU32 n => AInt U32 (Z.of_N n)
  | GAU64 n => AInt U64 (Z.of_N n) | GAUptr n => AInt Uptr (Z.of_N n)
  | GAI8 n => AInt I8 (sgn 8 n) | GAI16 n => AInt I16 (sgn 16 n) | GAI32 n => AInt I32 (sgn 32 n)
  | GAI64 n => AInt I64 (sgn 64 n) | GAInt n => AInt Int (sgn 64 n)
  | GABool b => ABool b | GAStr s => AStr s | GABytes s => ABytes s | GAOther => AOther
  end.

(** the values Go can produce: an integer lies in the range of its type *)
Definition gany_wf (g : gany) : Prop :=
  match g with
  | GAU8 n | GAI8 n => n < 2 ^ 8 | GAU16 n | GAI16 n => n < 2 ^ 16 | GAU32 n | GAI32 n => n < 2 ^ 32
  | GAU64 n | GAUptr n | GAI64 n | GAInt n => n < 2 ^ 64
  | _ => True
  end.

Lemma zi_wrap z : zi (wrap_int z) = zi z.
Proof.
  unfold zi, wrap_int, two63z, two64z. f_equal.
  rewrite Zminus_mod, Z.mod_mod by lia. rewrite <- Zminus_mod. f_equal. lia.
Qed.

Lemma to_u64_zi z : to_u64 z = zi z. Proof. reflexivity. Qed.

Lemma sgn64_sz n : sgn 64 n = sz n. Proof. reflexivity. Qed.

Lemma gsext_sgn bits n : (bits = 8 \/ bits = 16 \/ bits = 32) -> n < 2 ^ bits -> sz (gsext bits 64 n) = sgn bits n.
Proof.
  intros [-> | [-> | ->]] H; unfold gsext, gisneg, sgn, sz;
    match goal with |- context [2 ^ (?b - 1)] => let v := eval vm_compute in (2 ^ (b - 1)) in change (2 ^ (b - 1)) with v end;
    match goal with |- context [(2 ^ 64 - 2 ^ ?b)] => let v := eval vm_compute in (2 ^ 64 - 2 ^ b) in change (2 ^ 64 - 2 ^ b) with v end;
    match goal with |- context [Z.of_N (2 ^ ?b)] => let v := eval vm_compute in (Z.of_N (2 ^ b)) in change (Z.of_N (2 ^ b)) with v end;
    match type of H with _ < 2 ^ ?b => let v := eval vm_compute in (2 ^ b) in change (2 ^ b) with v in H end;
    match goal with |- context [?c <=? n] => destruct (N.leb_spec c n); destruct (N.ltb_spec n c); try lia end;
    match goal with |- context [?x <? 9223372036854775808] => destruct (N.ltb_spec x 9223372036854775808); lia end.
Qed.

Lemma gsext_lt bits n : (bits = 8 \/ bits = 16 \/ bits = 32) -> n < 2 ^ bits -> gsext bits 64 n < 2 ^ 64.
Proof.
  intros [-> | [-> | ->]] H; unfold gsext, gisneg;
    match goal with |- context [(2 ^ 64 - 2 ^ ?b)] => let v := eval vm_compute in (2 ^ 64 - 2 ^ b) in change (2 ^ 64 - 2 ^ b) with v end;
    match type of H with _ < 2 ^ ?b => let v := eval vm_compute in (2 ^ b) in change (2 ^ b) with v in H end;
    rewrite two64_lit; match goal with |- context [if ?c then _ else _] => destruct c end; lia.
Qed.

(** [s], [u] (64-bit representatives of sval, uval) stand for the integer argument [a] of the model *)
Definition int_tie (a : arg) (s u : N) : Prop :=
  s < 2 ^ 64 /\ u < 2 ^ 64 /\
  exists k x, a = AInt k x /\ (model_sval k x <? 0)%Z = (sz s <? 0)%Z /\ model_mag k x = tmag s u.

Lemma tie_signed k s : signed k = true -> s < 2 ^ 64 -> int_tie (AInt k (sz s)) s 0.
Proof.
  intros Hk Hs. split; [exact Hs|]. split; [reflexivity|]. exists k, (sz s). split; [reflexivity|].
  unfold model_mag, model_sval, tmag. rewrite Hk. split; [reflexivity|].
  rewrite Z.gtb_ltb. destruct (sz s <? 0)%Z; [rewrite to_u64_zi, zi_wrap; reflexivity|].
  destruct (0 <? sz s)%Z; [rewrite to_u64_zi; apply zi_sz; exact Hs|reflexivity].
Qed.

Lemma tie_unsigned k n : signed k = false -> n < 2 ^ 64 -> int_tie (AInt k (Z.of_N n)) 0 (gw 64 n).
Proof.
  intros Hk Hn. rewrite gw64_small' by exact Hn. split; [reflexivity|]. split; [exact Hn|].
  exists k, (Z.of_N n). split; [reflexivity|].
  unfold model_mag, model_sval, tmag. rewrite Hk. split; [reflexivity|].
  change (sz 0) with 0%Z. cbn [Z.ltb Z.gtb Z.compare]. rewrite to_u64_zi, zi_of_N by exact Hn. reflexivity.
Qed.

Lemma pad_clamp p : p < 2 ^ 64 ->
  let p' := if gsle 64 kfmt_maxBufSize p then gsub 64 kfmt_maxBufSize 1 else p in
  p' < 2 ^ 64 /\ sz p' = (if sz p >=? maxBufSize then maxBufSize - 1 else sz p)%Z.
Proof.
  intros Hp. cbv zeta. rewrite gsle_sz by (try exact Hp; reflexivity).
  change (sz kfmt_maxBufSize) with maxBufSize. rewrite Z.geb_leb.
  destruct (maxBufSize <=? sz p)%Z; [split; reflexivity|split; [exact Hp|reflexivity]].
Qed.

(** ---- fmtInt ---- *)
(** sval and uval as the type switch of fmtInt leaves them; [None]: not one of the ten integer types *)
Definition gint (g : gany) : option (N * N) :=
  match g with
  | GAU8 n | GAU16 n | GAU32 n | GAUptr n => Some (0, gw 64 n)
  | GAU64 n => Some (0, n)
  | GAI8 n => Some (gsext 8 64 n, 0)
  | GAI16 n => Some (gsext 16 64 n, 0)
  | GAI32 n => Some (gsext 32 64 n, 0)
  | GAI64 n => Some (n, 0)
  | GAInt n => Some (gw 64 n, 0)
  | _ => None
  end.

Lemma gint_tie g s u : gany_wf g -> gint g = Some (s, u) -> int_tie (of_gany g) s u.
Proof.
  assert (S : forall k bits n, signed k = true -> bits = 8 \/ bits = 16 \/ bits = 32 -> n < 2 ^ bits ->
            int_tie (AInt k (sgn bits n)) (gsext bits 64 n) 0).
  { intros k bits n Hk Hbits Hn. rewrite <- (gsext_sgn bits n Hbits Hn). apply tie_signed; [exact Hk|].
    apply gsext_lt; assumption. }
  destruct g as [n|n|n|n|n|n|n|n|n|n|b|l|l|]; cbn [gint gany_wf of_gany]; intros Hg E; try discriminate E;
    injection E as <- <-.
  - apply tie_unsigned; [reflexivity|]. eapply N.lt_trans; [exact Hg|reflexivity].
  - apply tie_unsigned; [reflexivity|]. eapply N.lt_trans; [exact Hg|reflexivity].
  - apply tie_unsigned; [reflexivity|]. eapply N.lt_trans; [exact Hg|reflexivity].
  - rewrite <- (gw64_small' n Hg) at 2. apply tie_unsigned; [reflexivity|exact Hg].
  - apply tie_unsigned; [reflexivity|exact Hg].
  - apply S; [reflexivity|tauto|exact Hg].
  - apply S; [reflexivity|tauto|exact Hg].
  - apply S; [reflexivity|tauto|exact Hg].
  - apply (tie_signed I64 n eq_refl Hg).
  - rewrite gw64_small' by exact Hg. apply (tie_signed Int n eq_refl Hg).
Qed.

Theorem fmtInt_is_translation fuel w tr buf sb g base pad :
  buf_ok buf -> gany_wf g -> base = 8 \/ base = 10 \/ base = 16 -> pad < 2 ^ 64 -> (34 <= fuel)%nat ->
  exists cs buf',
    fmt_int buf (of_gany g) (Z.of_N base) (sz pad) = Ok (cs, buf') /\
    go_kfmt_fmtInt fuel (mkw tr buf sb) w g base pad = GOk (mkw (pushed w cs tr) buf' sb, tt) /\
    buf_ok buf'.
Proof.
  intros Hb Hg Hbase Hp Hf.
  assert (HbZ : (Z.of_N base = 8 \/ Z.of_N base = 10 \/ Z.of_N base = 16)%Z) by lia.
  destruct (pad_clamp pad Hp) as [Hp' Hpz]. cbv zeta in Hp', Hpz.
  set (pl := if gsle 64 kfmt_maxBufSize pad then gsub 64 kfmt_maxBufSize 1 else pad) in *.
  pose (pc := if (Z.of_N base =? 10)%Z then 32 else 48).
  assert (T : go_kfmt_fmtInt fuel (mkw tr buf sb) w g base pad =
              match gint g with
              | Some (s, u) => go_kfmt_fmtInt_k8 fuel base base 0 0 pc pl 0 0 g w (mkw tr buf sb, s, u)
              | None => GOk (mkw (ev w kfmt_errWrongArgType :: tr) buf sb, tt)
              end).
  { unfold go_kfmt_fmtInt, pl, pc. destruct Hbase as [-> | [-> | ->]]; destruct g; reflexivity. }
  rewrite T. clear T. destruct (gint g) as [[s u]|] eqn:Eg.
  - destruct (gint_tie g s u Hg Eg) as (Hs & Hu & k & x & -> & En & Em).
    destruct (fmt_int_total buf (AInt k x) (Z.of_N base) (sz pad) Hb HbZ) as [[cs buf'] [E Hl]].
    exists cs, buf'. split; [exact E|].
    rewrite fmt_int_core in E by exact HbZ. rewrite N2Z.id, <- Hpz, En, Em in E.
    apply fmtInt_tail_sim; [exact Hb|exact Hp'|exact Hs|exact Hu|exact Hf|exact E].
  - exists [kfmt_errWrongArgType], buf. rewrite fmt_int_wrong by (destruct g; try discriminate Eg; exact I).
    split; [reflexivity|]. split; [reflexivity|exact Hb].
Qed.

(** ---- fmtRepeat, fmtBool ---- *)
Lemma pushed_cons w c cs tr : pushed w (c :: cs) tr = pushed w cs (ev w c :: tr).
Proof. unfold pushed. cbn [map rev]. rewrite <- app_assoc. reflexivity. Qed.

Lemma pushed_app w a b tr : pushed w (a ++ b) tr = pushed w b (pushed w a tr).
Proof. unfold pushed. rewrite map_app, rev_app_distr, app_assoc. reflexivity. Qed.

Lemma repeat_sim ch cnt w buf sb : cnt < 2 ^ 64 -> forall k i tr f,
  (Z.of_N i + Z.of_nat k = Z.max 0 (sz cnt))%Z -> (k < f)%nat ->
  gloop f (go_kfmt_fmtRepeat_loop1 ch cnt w) (mkw tr buf sb, i)
    = GOk (inl (mkw (pushed w (repeat sb k) tr) buf sb, i + N.of_nat k)).
Proof.
  intros Hc. assert (Hc63 : (sz cnt < 9223372036854775808)%Z).
  { unfold sz. rewrite two64_lit in Hc. destruct (N.ltb_spec cnt 9223372036854775808); lia. }
  induction k as [|k IH]; intros i tr f Hik Hf; (destruct f as [|f]; [lia|]);
    rewrite gloop_S; unfold go_kfmt_fmtRepeat_loop1 at 1; cbv beta iota zeta; wsimp;
    rewrite gslt_sz by (try exact Hc; rewrite two64_lit; lia); rewrite (sz_small i) by lia.
  - destruct (Z.ltb_spec (Z.of_N i) (sz cnt)); [lia|]. rewrite N.add_0_r. reflexivity.
  - destruct (Z.ltb_spec (Z.of_N i) (sz cnt)); [|lia].
    rewrite (gw64_small' (i + 1)) by (rewrite two64_lit; lia).
    transitivity (gloop f (go_kfmt_fmtRepeat_loop1 ch cnt w) (mkw (ev w sb :: tr) buf sb, i + 1)); [reflexivity|].
    rewrite IH by lia. cbn [repeat]. rewrite pushed_cons.
    replace (i + 1 + N.of_nat k) with (i + N.of_nat (S k)) by lia. reflexivity.
Qed.

Theorem fmtRepeat_is_translation fuel w tr buf x ch cnt :
  cnt < 2 ^ 64 -> (Z.to_nat (sz cnt) < fuel)%nat ->
  fmt_repeat ch (sz cnt) = Ok (repeat [ch] (Z.to_nat (sz cnt))) /\
  go_kfmt_fmtRepeat fuel (mkw tr buf [x]) w ch cnt
    = GOk (mkw (pushed w (repeat [ch] (Z.to_nat (sz cnt))) tr) buf [ch], tt).
Proof.
  intros Hc Hf. split; [apply fmt_repeat_ok|].
  unfold go_kfmt_fmtRepeat. wsimp. change (gset [x] 0 ch) with (Some [ch]). cbv beta iota zeta.
  change (gw 64 0) with 0. change (set_f_world_singleByte (mkw tr buf [x]) [ch]) with (mkw tr buf [ch]).
  rewrite (repeat_sim ch cnt w buf [ch] Hc (Z.to_nat (sz cnt)) 0 tr fuel) by lia. reflexivity.
Qed.

Theorem fmtBool_is_translation w tr buf sb g :
  go_kfmt_fmtBool (mkw tr buf sb) w g = GOk (mkw (pushed w (fmt_bool (of_gany g)) tr) buf sb, tt).
Proof. destruct g as [n|n|n|n|n|n|n|n|n|n|b|s|s|]; try destruct b; reflexivity. Qed.

(** ---- fmtString ---- *)
Lemma sz_zi_wrap z : sz (zi z) = wrap_int z.
Proof.
  unfold sz, zi, wrap_int, two63z, two64z.
  destruct (N.ltb_spec (Z.to_N (z mod 18446744073709551616)) 9223372036854775808); lia.
Qed.

Lemma glen_zi (s : list N) : glen s < 2 ^ 64 -> glen s = zi (Z.of_nat (length s)).
Proof. unfold glen. rewrite two64_lit. intros H. rewrite zi_small by lia. lia. Qed.

(** [for i := 0; i < len(s); i++ { singleByte[0] = s[i]; doWrite(w, singleByte) }] *)
Lemma singles_sim s pad g w buf : glen s < 9223372036854775808 -> forall k i tr x f,
  (i + k = length s)%nat -> (k < f)%nat ->
  exists y,
    gloop f (go_kfmt_fmtString_loop3 s pad g w) (mkw tr buf [x], N.of_nat i)
      = GOk (inl (mkw (pushed w (map (fun c => [c]) (skipn i s)) tr) buf [y], N.of_nat (length s))).
Proof.
  intros Hs. unfold glen in Hs.
  induction k as [|k IH]; intros i tr x f Hik Hf; (destruct f as [|f]; [lia|]);
    rewrite gloop_S; unfold go_kfmt_fmtString_loop3 at 1; cbv beta iota zeta; wsimp;
    rewrite gslt_small by (rewrite two63_lit; unfold glen; lia); unfold glen.
  - destruct (N.ltb_spec (N.of_nat i) (N.of_nat (length s))); [lia|].
    rewrite skipn_all2 by lia. exists x. replace i with (length s) by lia. reflexivity.
  - destruct (N.ltb_spec (N.of_nat i) (N.of_nat (length s))); [|lia].
    rewrite gidxs_small by (rewrite two63_lit; lia). rewrite gidx_some by (unfold glen; lia).
    rewrite Nat2N.id. set (c := nth i s 0).
    change (gset [x] 0 c) with (Some [c]). cbv beta iota. wsimp.
    rewrite gw64_succ by lia.
    destruct (IH (S i) (ev w [c] :: tr) c f ltac:(lia) ltac:(lia)) as [y Hy].
    exists y.
    transitivity (gloop f (go_kfmt_fmtString_loop3 s pad g w) (mkw (ev w [c] :: tr) buf [c], N.of_nat (S i))); [reflexivity|].
    rewrite Hy. rewrite (skipn_nth_error_cons i s c) by (unfold c; apply nth_error_nth'; lia).
    cbn [map]. rewrite pushed_cons. reflexivity.
Qed.

(** the padding count [padLen - len(s)], computed on 64-bit ints *)
Lemma pad_count (s : list N) pad : pad < 2 ^ 64 -> glen s < 9223372036854775808 ->
  let cnt := gsub 64 pad (glen s) in
  cnt < 2 ^ 64 /\ sz cnt = wrap_int (sz pad - Z.of_nat (length s)).
Proof.
  intros Hp Hs. split; [unfold gsub, gw; apply N.mod_lt; discriminate|].
  rewrite <- (zi_sz pad) at 1 by exact Hp.
  rewrite (glen_zi s) by (rewrite two64_lit; lia). rewrite gsub_zi. apply sz_zi_wrap.
Qed.

Theorem fmtString_is_translation fuel w tr buf x g pad :
  pad < 2 ^ 64 ->
  match g with GAStr s | GABytes s =>
    glen s < 9223372036854775808 /\ (length s < fuel)%nat /\
    (Z.to_nat (wrap_int (sz pad - Z.of_nat (length s))) < fuel)%nat
  | _ => True end ->
  exists cs y,
    fmt_string (of_gany g) (sz pad) = Ok cs /\
    go_kfmt_fmtString fuel (mkw tr buf [x]) w g pad = GOk (mkw (pushed w cs tr) buf [y], tt).
Proof.
  intros Hp Hg.
  destruct g as [n|n|n|n|n|n|n|n|n|n|b|s|s|]; cbn [of_gany fmt_string];
    try (exists [kfmt_errWrongArgType], x; split; reflexivity).
  - destruct Hg as [Hs [Hf1 Hf2]]. destruct (pad_count s pad Hp Hs) as [Hcl Hcnt]. cbv zeta in Hcl, Hcnt.
    set (cnt := gsub 64 pad (glen s)) in *.
    destruct (fmtRepeat_is_translation fuel w tr buf x 32 cnt Hcl ltac:(rewrite Hcnt; exact Hf2)) as [R1 R2].
    rewrite Hcnt in R1, R2. rewrite R1, singles_ok. cbn [bind].
    destruct (singles_sim s pad (GAStr s) w buf Hs (length s) 0%nat
                (pushed w (repeat [32] (Z.to_nat (wrap_int (sz pad - Z.of_nat (length s))))) tr) 32 fuel ltac:(lia) Hf1) as [y Hy].
    eexists. exists y. split; [reflexivity|].
    unfold go_kfmt_fmtString. cbv beta zeta. fold cnt. rewrite R2. cbv beta iota zeta.
    change (gw 64 0) with (N.of_nat 0). rewrite Hy. cbv beta iota zeta.
    unfold go_kfmt_fmtString_k2. cbn [skipn]. rewrite pushed_app. reflexivity.
  - destruct Hg as [Hs [Hf1 Hf2]]. destruct (pad_count s pad Hp Hs) as [Hcl Hcnt]. cbv zeta in Hcl, Hcnt.
    set (cnt := gsub 64 pad (glen s)) in *.
    destruct (fmtRepeat_is_translation fuel w tr buf x 32 cnt Hcl ltac:(rewrite Hcnt; exact Hf2)) as [R1 R2].
    rewrite Hcnt in R1, R2. rewrite R1. cbn [bind].
    eexists. exists 32. split; [reflexivity|].
    unfold go_kfmt_fmtString. cbv beta zeta. fold cnt. rewrite R2. cbv beta iota zeta.
    unfold go_kfmt_fmtString_k2. wsimp. rewrite pushed_app. reflexivity.
Qed.

(** ---- the bytes the writer received ---- *)
(** concatenation, in the order of the calls, of the byte slices handed to doWrite *)
Definition trace_bytes (tr : list gcall) : list N :=
  List.concat (map (fun c => match c with GCall _ [_; GBytes b] => b | _ => [] end) (rev tr)).

Lemma trace_bytes_pushed w cs tr : trace_bytes (pushed w cs tr) = trace_bytes tr ++ List.concat cs.
Proof.
  unfold trace_bytes, pushed. rewrite rev_app_distr, rev_involutive, map_app, concat_app, map_map.
  f_equal. f_equal. cbn [ev]. apply map_id.
Qed.

(** a base other than 8 / 10 / 16 leaves divider = 0: the first [uval % divider] is Go's division-by-zero panic,
    in the model ([Panic DivZero]) and in the translation alike *)
Theorem fmtInt_bad_base_panics fuel w tr buf sb n pad :
  (1 <= fuel)%nat -> length buf = N.to_nat kfmt_numFmtBufLen ->
  go_kfmt_fmtInt fuel (mk_go_kfmt_world tr buf sb) w (GAU8 n) 7 pad = GPanic /\
  fmt_int buf (AInt U8 (Z.of_N n)) 7 (sz pad) = Panic DivZero.
Proof.
  intros Hf Hb. destruct fuel as [|f]; [lia|]. split.
  - unfold go_kfmt_fmtInt. cbv beta zeta. cbn [gas_u8 N.eqb Pos.eqb]. cbv beta iota zeta.
    unfold go_kfmt_fmtInt_k8. cbv beta iota zeta. rewrite gloop_S. reflexivity.
  - reflexivity.
Qed.
