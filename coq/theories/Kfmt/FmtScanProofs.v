(** Proofs about Fprintf's scanner (Kfmt/Fmt.v): it never panics on any format, and on well-formed
    formats it writes exactly what the specification (Kfmt/FmtSpec.v) renders. *)
From Coq Require Import NArith ZArith List Bool Lia.
From Coq Require Import ZifyBool ZifyN ZifyNat.
From FF Require Import Lib.Std Lib.Word Gen.Consts_kfmt Kfmt.Fmt Kfmt.FmtSpec Kfmt.FmtProofs.
Import ListNotations.
Local Open Scope Z_scope.

Definition is_ok {A} (o : outcome A) : Prop := exists r, o = Ok r.

(** ---- the per-verb formatters are total ---- *)
Lemma singles_ok s : singles s = Ok (map (fun c => [c]) s).
Proof. induction s as [|c s IH]; [reflexivity|]. cbn [singles map]. rewrite single_ok, IH. reflexivity. Qed.

Lemma fmt_repeat_ok ch count : fmt_repeat ch count = Ok (repeat [ch] (Z.to_nat count)).
Proof.
  unfold fmt_repeat. rewrite single_ok. cbn [bind]. f_equal.
  rewrite <- Z_N_nat. rewrite N2Nat.inj_iter.
  induction (N.to_nat (Z.to_N count)) as [|n IH]; [reflexivity|]. cbn [Nat.iter repeat]. rewrite <- IH. reflexivity.
Qed.

Lemma concat_repeat_single (c : N) n : concat (repeat [c] n) = repeat c n.
Proof. induction n as [|n IH]; [reflexivity|]. cbn [repeat concat app]. rewrite IH. reflexivity. Qed.

Lemma concat_singles (s : list N) : concat (map (fun c => [c]) s) = s.
Proof. induction s as [|c s IH]; [reflexivity|]. cbn [map concat app]. rewrite IH. reflexivity. Qed.

Lemma fmt_int_total buf a base pad :
  length buf = buf_len -> base = 8 \/ base = 10 \/ base = 16 ->
  exists r, fmt_int buf a base pad = Ok r /\ length (snd r) = buf_len.
Proof.
  intros Hl Hb. destruct a as [k x| | | |].
  1:{ destruct (fmt_int_exact buf k x base pad Hl Hb) as [buf' [Hl' E]]. eexists. split; [exact E|exact Hl']. }
  all: rewrite fmt_int_wrong by exact I; eexists; split; [reflexivity|exact Hl].
Qed.

Lemma fmt_string_total a pad : exists r, fmt_string a pad = Ok r.
Proof.
  destruct a; cbn [fmt_string]; try (eexists; reflexivity);
    rewrite fmt_repeat_ok; cbn [bind]; try rewrite singles_ok; cbn [bind]; eexists; reflexivity.
Qed.

Lemma do_verb_total ch a pad buf :
  length buf = buf_len -> exists r, do_verb ch a pad buf = Ok r /\ length (snd r) = buf_len.
Proof.
  intros Hl. unfold do_verb.
  destruct (ch =? 111)%N; [apply fmt_int_total; auto|].
  destruct (ch =? 100)%N; [apply fmt_int_total; auto|].
  destruct (ch =? 120)%N; [apply fmt_int_total; auto|].
  destruct (ch =? 115)%N.
  { destruct (fmt_string_total a pad) as [r E]. rewrite E. cbn [bind]. eexists; split; [reflexivity|exact Hl]. }
  destruct (ch =? 116)%N; (eexists; split; [reflexivity|exact Hl]).
Qed.

(** ---- literal blocks ---- *)
Lemma write_block_app blk : forall pre rest,
  write_block (pre ++ blk ++ rest) (length blk) (length pre) = Ok (map (fun c => [c]) blk).
Proof.
  induction blk as [|c blk IH]; intros pre rest; [reflexivity|].
  cbn [length write_block]. unfold fget.
  rewrite nth_error_app2, Nat.sub_diag by lia. cbn [app nth_error bind].
  rewrite single_ok. cbn [bind].
  specialize (IH (pre ++ [c]) rest). rewrite app_length in IH. cbn [length] in IH.
  rewrite <- app_assoc in IH. cbn [app] in IH.
  replace (S (length pre)) with (length pre + 1)%nat by lia. rewrite IH. reflexivity.
Qed.

Lemma write_block_total fmt n : forall i, (i + n <= length fmt)%nat ->
  exists r, write_block fmt n i = Ok r.
Proof.
  induction n as [|n IH]; intros i H; [eexists; reflexivity|]. cbn [write_block]. unfold fget.
  destruct (nth_error fmt i) as [c|] eqn:E.
  2:{ apply nth_error_None in E. lia. }
  cbn [bind]. rewrite single_ok. cbn [bind].
  destruct (IH (S i) ltac:(lia)) as [r Er]. rewrite Er. eexists; reflexivity.
Qed.

(** ---- one step of the scanner, by what it sees ---- *)
Section Steps.
  Variable fmt : list N.
  Variable args : list arg.

  Lemma nth_some_ltb be (ch : N) : nth_error fmt be = Some ch -> (be <? length fmt)%nat = true.
  Proof. intros H. apply Nat.ltb_lt. apply nth_error_Some. rewrite H. discriminate. Qed.

  Lemma scan_None_lit f bs be ai buf ch :
    nth_error fmt be = Some ch -> ch <> 37%N ->
    scan fmt args (S f) None bs be ai buf = scan fmt args f None bs (S be) ai buf.
  Proof.
    intros H Hc. cbn [scan]. rewrite (nth_some_ltb be ch H). unfold fget. rewrite H. cbn [bind].
    destruct (ch =? 37)%N eqn:E; [apply N.eqb_eq in E; contradiction|]. reflexivity.
  Qed.

  Lemma scan_None_pct f bs be ai buf :
    nth_error fmt be = Some 37%N ->
    scan fmt args (S f) None bs be ai buf =
      (blk <- (if (bs <? be)%nat then write_block fmt (be - bs) bs else Ok []) ;;
       r <- scan fmt args f (Some 0) bs (S be) ai buf ;;
       Ok (blk ++ fst r, snd r)).
  Proof.
    intros H. cbn [scan]. rewrite (nth_some_ltb be _ H). unfold fget. rewrite H. reflexivity.
  Qed.

  Lemma scan_None_end f bs be ai buf :
    (length fmt <= be)%nat -> scan fmt args (S f) None bs be ai buf = finish fmt args bs be ai buf.
  Proof.
    intros H. cbn [scan]. destruct (be <? length fmt)%nat eqn:E; [apply Nat.ltb_lt in E; lia|]. reflexivity.
  Qed.

  Lemma scan_Some_pct f pad bs be ai buf :
    nth_error fmt be = Some 37%N ->
    scan fmt args (S f) (Some pad) bs be ai buf =
      (r <- scan fmt args f None (S be) (S be) ai buf ;; Ok ([37%N] :: fst r, snd r)).
  Proof.
    intros H. cbn [scan]. rewrite (nth_some_ltb be _ H). unfold fget. rewrite H. reflexivity.
  Qed.

  Lemma scan_Some_digit f pad bs be ai buf ch :
    nth_error fmt be = Some ch -> is_digit ch = true ->
    scan fmt args (S f) (Some pad) bs be ai buf =
      scan fmt args f (Some (wrap_int (pad * 10 + Z.of_N (w8 (ch + 256 - 48))))) bs (S be) ai buf.
  Proof.
    intros H Hd. cbn [scan]. rewrite (nth_some_ltb be _ H). unfold fget. rewrite H. cbn [bind].
    destruct (ch =? 37)%N eqn:E.
    { apply N.eqb_eq in E. subst ch. discriminate Hd. }
    rewrite Hd. reflexivity.
  Qed.

  Lemma is_verb_class ch : is_verb ch = true -> (ch =? 37)%N = false /\ is_digit ch = false.
  Proof.
    unfold is_verb, is_digit. intros Hv.
    destruct (ch =? 100)%N eqn:E1; [apply N.eqb_eq in E1; subst; split; reflexivity|].
    destruct (ch =? 120)%N eqn:E2; [apply N.eqb_eq in E2; subst; split; reflexivity|].
    destruct (ch =? 111)%N eqn:E3; [apply N.eqb_eq in E3; subst; split; reflexivity|].
    destruct (ch =? 115)%N eqn:E4; [apply N.eqb_eq in E4; subst; split; reflexivity|].
    destruct (ch =? 116)%N eqn:E5; [apply N.eqb_eq in E5; subst; split; reflexivity|].
    discriminate Hv.
  Qed.

  Lemma scan_Some_verb f pad bs be ai buf ch :
    nth_error fmt be = Some ch -> is_verb ch = true ->
    scan fmt args (S f) (Some pad) bs be ai buf =
      match nth_error args ai with
      | None => r <- scan fmt args f None (S be) (S be) ai buf ;; Ok (kfmt_errMissingArg :: fst r, snd r)
      | Some a =>
          o <- do_verb ch a pad buf ;;
          r <- scan fmt args f None (S be) (S be) (S ai) (snd o) ;;
          Ok (fst o ++ fst r, snd r)
      end.
  Proof.
    intros H Hv. cbn [scan]. rewrite (nth_some_ltb be _ H). unfold fget. rewrite H. cbn [bind].
    destruct (is_verb_class ch Hv) as [E1 E2]. rewrite E1, E2, Hv. reflexivity.
  Qed.

  Lemma scan_Some_other f pad bs be ai buf ch :
    nth_error fmt be = Some ch -> ch <> 37%N -> is_digit ch = false -> is_verb ch = false ->
    scan fmt args (S f) (Some pad) bs be ai buf =
      (r <- scan fmt args f (Some pad) bs (S be) ai buf ;; Ok (kfmt_errNoVerb :: fst r, snd r)).
  Proof.
    intros H Hc Hd Hv. cbn [scan]. rewrite (nth_some_ltb be _ H). unfold fget. rewrite H. cbn [bind].
    destruct (N.eqb_spec ch 37); [contradiction|]. rewrite Hd, Hv. reflexivity.
  Qed.

  Lemma scan_Some_end f pad bs be ai buf :
    (length fmt <= be)%nat ->
    scan fmt args (S f) (Some pad) bs be ai buf = scan fmt args f None (S be) (S be) ai buf.
  Proof.
    intros H. cbn [scan]. destruct (Nat.ltb_spec be (length fmt)); [lia|reflexivity].
  Qed.
End Steps.

(** ---- Fprintf never panics ---- *)
Definition scan_inv (fmt : list N) (mode : option Z) (bs be : nat) : Prop :=
  (bs <= be)%nat /\
  match mode with
  | Some _ => (be <= length fmt)%nat
  | None => (be <= length fmt)%nat \/ (bs = be /\ be = S (length fmt))
  end.

Lemma scan_inv_step fmt mode mode' bs be :
  scan_inv fmt mode bs be -> (be < length fmt)%nat -> scan_inv fmt mode' bs (S be).
Proof. intros [H _] Hlt. split; [lia|]. destruct mode'; [|left]; lia. Qed.

Lemma scan_inv_leave fmt pad bs be : scan_inv fmt (Some pad) bs be -> scan_inv fmt None (S be) (S be).
Proof. intros [_ H]. split; [lia|]. cbn in H. lia. Qed.

Lemma block_total fmt bs be (c : bool) :
  (c = true -> (bs <= be <= length fmt)%nat) ->
  exists blk, (if c then write_block fmt (be - bs) bs else Ok []) = Ok blk.
Proof. destruct c; [intros H; apply write_block_total; specialize (H eq_refl); lia|eexists; reflexivity]. Qed.

Definition ok_buf (o : outcome (list chunk * list N)) : Prop := exists r, o = Ok r /\ length (snd r) = buf_len.

Lemma ok_buf_map o (g : list chunk -> list chunk) : ok_buf o -> ok_buf (r <- o ;; Ok (g (fst r), snd r)).
Proof. intros [r [-> Hr]]. eexists; split; [reflexivity|exact Hr]. Qed.

Lemma scan_total fmt args fuel : forall mode bs be ai buf,
  length buf = buf_len -> scan_inv fmt mode bs be -> (length fmt + 2 <= fuel + be)%nat ->
  ok_buf (scan fmt args fuel mode bs be ai buf).
Proof.
  induction fuel as [|fuel IH]; intros mode bs be ai buf Hl Hinv Hf.
  { exfalso. destruct mode, Hinv; lia. }
  destruct (nth_error fmt be) as [ch|] eqn:Ec.
  2:{ apply nth_error_None in Ec. destruct mode as [pad|].
      - rewrite scan_Some_end by exact Ec. apply IH; [exact Hl|eapply scan_inv_leave; exact Hinv|lia].
      - rewrite scan_None_end by exact Ec. unfold finish.
        destruct (block_total fmt bs be (negb (bs =? be)%nat)) as [blk Eb].
        { intros E. apply negb_true_iff, Nat.eqb_neq in E. destruct Hinv; lia. }
        rewrite Eb. eexists; split; [reflexivity|exact Hl]. }
  assert (Hlt : (be < length fmt)%nat) by (apply nth_error_Some; congruence).
  pose proof (fun m => scan_inv_step fmt mode m bs be Hinv Hlt) as Hstep.
  destruct mode as [pad|].
  - (* inside a format specifier *)
    pose proof (scan_inv_leave fmt pad bs be Hinv) as Hleave.
    destruct (N.eqb_spec ch 37) as [->|Hc].
    { rewrite scan_Some_pct by exact Ec. apply (ok_buf_map _ (cons _)). apply IH; [exact Hl|exact Hleave|lia]. }
    destruct (is_digit ch) eqn:Ed.
    { rewrite (scan_Some_digit _ _ _ _ _ _ _ _ ch Ec Ed). apply IH; [exact Hl|apply Hstep|lia]. }
    destruct (is_verb ch) eqn:Ev.
    + rewrite (scan_Some_verb _ _ _ _ _ _ _ _ ch Ec Ev). destruct (nth_error args ai) as [a|].
      * destruct (do_verb_total ch a pad buf Hl) as [o [Eo Ho]]. rewrite Eo. cbn [bind].
        apply (ok_buf_map _ (app _)). apply IH; [exact Ho|exact Hleave|lia].
      * apply (ok_buf_map _ (cons _)). apply IH; [exact Hl|exact Hleave|lia].
    + rewrite (scan_Some_other _ _ _ _ _ _ _ _ ch Ec Hc Ed Ev).
      apply (ok_buf_map _ (cons _)). apply IH; [exact Hl|apply Hstep|lia].
  - destruct (N.eqb_spec ch 37) as [->|Hc].
    + rewrite scan_None_pct by exact Ec.
      destruct (block_total fmt bs be (bs <? be)%nat) as [blk Eb]; [intros _; destruct Hinv; lia|].
      rewrite Eb. cbn [bind]. apply (ok_buf_map _ (app _)). apply IH; [exact Hl|apply (Hstep (Some 0))|lia].
    + rewrite (scan_None_lit _ _ _ _ _ _ _ ch Ec Hc). apply IH; [exact Hl|apply Hstep|lia].
Qed.

Lemma fprintf_total fmt args buf :
  length buf = buf_len -> exists r, fprintf fmt args buf = Ok r /\ length (snd r) = buf_len.
Proof.
  intros Hl. unfold fprintf. apply scan_total; [exact Hl | split; [lia | left; lia] | lia].
Qed.

Lemma nth_error_mid (pre : list N) c rest : nth_error (pre ++ c :: rest) (length pre) = Some c.
Proof. rewrite nth_error_app2, Nat.sub_diag by lia. reflexivity. Qed.

(** ---- literal text ---- *)
Lemma scan_literal args s : forall pre rest fuel bs ai buf,
  ~ In 37%N s ->
  scan (pre ++ s ++ rest) args (length s + fuel) None bs (length pre) ai buf =
  scan (pre ++ s ++ rest) args fuel None bs (length pre + length s) ai buf.
Proof.
  induction s as [|c s IH]; intros pre rest fuel bs ai buf Hs.
  - cbn [length Nat.add]. rewrite Nat.add_0_r. reflexivity.
  - cbn [length Nat.add].
    rewrite (scan_None_lit _ _ _ _ _ _ _ c).
    2:{ cbn [app]. apply nth_error_mid. }
    2:{ intros E. apply Hs. left. exact E. }
    specialize (IH (pre ++ [c]) rest fuel bs ai buf ltac:(intros H; apply Hs; right; exact H)).
    rewrite <- app_assoc in IH. cbn [app] in IH. rewrite app_length in IH. cbn [length] in IH.
    replace (S (length pre)) with (length pre + 1)%nat by lia.
    cbn [app]. rewrite IH. f_equal. lia.
Qed.

(** ---- width digits ---- *)
Lemma wrap_int_small z : - two63z <= z < two63z -> wrap_int z = z.
Proof. unfold wrap_int, two63z, two64z. intros H. lia. Qed.

Lemma fold_width_ge wd : forall p, (p <= fold_left (fun a d => a * 10 + d) wd p)%N.
Proof.
  induction wd as [|d wd IH]; intros p; cbn [fold_left]; [lia|].
  specialize (IH (p * 10 + d)%N). lia.
Qed.

Lemma scan_width args wd : forall p pre rest fuel bs ai buf,
  Forall (fun d => (d < 10)%N) wd ->
  (fold_left (fun a d => a * 10 + d) wd p < width_limit)%N ->
  let fmt := pre ++ map (fun d => (d + 48)%N) wd ++ rest in
  scan fmt args (length wd + fuel) (Some (Z.of_N p)) bs (length pre) ai buf =
  scan fmt args fuel (Some (Z.of_N (fold_left (fun a d => a * 10 + d)%N wd p))) bs (length pre + length wd) ai buf.
Proof.
  induction wd as [|d wd IH]; intros p pre rest fuel bs ai buf Hwd Hlim fmt.
  - cbn [length Nat.add fold_left]. rewrite Nat.add_0_r. reflexivity.
  - inversion Hwd as [|d' wd' Hd Hwd']; subst. cbn [length Nat.add fold_left] in *.
    rewrite (scan_Some_digit _ _ _ _ _ _ _ _ (d + 48)%N).
    2:{ unfold fmt. cbn [map app]. apply nth_error_mid. }
    2:{ unfold is_digit. apply andb_true_intro. split; apply N.leb_le; lia. }
    pose proof (fold_width_ge wd (p * 10 + d)%N) as Hge. unfold width_limit in Hlim.
    assert (Hpad : wrap_int (Z.of_N p * 10 + Z.of_N (w8 (d + 48 + 256 - 48))) = Z.of_N (p * 10 + d)).
    { unfold w8, two8. rewrite wrap_int_small; unfold two63z; lia. }
    rewrite Hpad.
    specialize (IH (p * 10 + d)%N (pre ++ [(d + 48)%N]) rest fuel bs ai buf Hwd' Hlim).
    cbv zeta in IH. rewrite <- app_assoc in IH. cbn [app] in IH. rewrite app_length in IH. cbn [length] in IH.
    replace (S (length pre)) with (length pre + 1)%nat by lia.
    unfold fmt. cbn [map app]. rewrite IH. f_equal. lia.
Qed.

(** ---- one verb ---- *)
Lemma do_verb_render v a w buf :
  length buf = buf_len -> arg_ok a -> (w < width_limit)%N ->
  exists o, do_verb (verb_char v) a (Z.of_N w) buf = Ok o /\ length (snd o) = buf_len /\
            concat (fst o) = render_verb w v a.
Proof.
  intros Hl Ha Hw. unfold width_limit in Hw.
  assert (Hint : forall base k x, base = 8 \/ base = 10 \/ base = 16 -> in_range k x ->
            exists o, fmt_int buf (AInt k x) base (Z.of_N w) = Ok o /\ length (snd o) = buf_len /\
                      concat (fst o) = render_int (Z.to_N base) w (x <? 0) (Z.abs_N x)).
  { intros base k x Hb Hr. destruct (fmt_int_exact buf k x base (Z.of_N w) Hl Hb) as [buf' [Hl' E]].
    destruct (model_in_range k x Hr) as [E1 E2]. rewrite E1, E2, N2Z.id in E.
    eexists. split; [exact E|]. split; [exact Hl'|]. cbn [fst concat]. apply app_nil_r. }
  assert (Hwrong : forall base,
            match a with AInt _ _ => True | _ =>
              exists o, fmt_int buf a base (Z.of_N w) = Ok o /\ length (snd o) = buf_len /\
                        concat (fst o) = kfmt_errWrongArgType end).
  { intros base. destruct a; [exact I| | | |];
      (rewrite fmt_int_wrong by exact I; eexists; split; [reflexivity|]; split; [exact Hl|]; cbn [fst concat]; apply app_nil_r). }
  destruct v; unfold do_verb; cbn [verb_char N.eqb Pos.eqb].
  - (* d *) destruct a as [k x| | | |]; [apply (Hint 10); auto | | | |]; apply (Hwrong 10).
  - (* x *) destruct a as [k x| | | |]; [apply (Hint 16); auto | | | |]; apply (Hwrong 16).
  - (* o *) destruct a as [k x| | | |]; [apply (Hint 8); auto | | | |]; apply (Hwrong 8).
  - (* s *)
    assert (Hpad : forall s : list N, Z.of_nat (length s) < 2 ^ 62 ->
              wrap_int (Z.of_N w - Z.of_nat (length s)) = Z.of_N w - Z.of_nat (length s)).
    { intros s Hs. apply wrap_int_small. unfold two63z. lia. }
    destruct a as [k x|s|s|b|]; cbn [fmt_string render_verb arg_ok] in *.
    + eexists; split; [reflexivity|]; split; [exact Hl|]. cbn [fst concat]. apply app_nil_r.
    + rewrite fmt_repeat_ok, singles_ok. cbn [bind]. eexists; split; [reflexivity|]; split; [exact Hl|].
      cbn [fst]. rewrite concat_app, concat_repeat_single, concat_singles, Hpad by exact Ha.
      unfold rep. f_equal. f_equal. lia.
    + rewrite fmt_repeat_ok. cbn [bind]. eexists; split; [reflexivity|]; split; [exact Hl|].
      cbn [fst]. rewrite concat_app, concat_repeat_single, Hpad by exact Ha.
      cbn [concat]. rewrite app_nil_r. unfold rep. f_equal. f_equal. lia.
    + eexists; split; [reflexivity|]; split; [exact Hl|]. cbn [fst concat]. apply app_nil_r.
    + eexists; split; [reflexivity|]; split; [exact Hl|]. cbn [fst concat]. apply app_nil_r.
  - (* t *)
    destruct a as [k x|s|s|b|]; cbn [fmt_bool render_verb]; try destruct b;
      (eexists; split; [reflexivity|]; split; [exact Hl|]; cbn [fst concat]; apply app_nil_r).
Qed.

(** ---- the whole format ---- *)
Lemma concat_extra (x : list N) (l : list arg) n : n = length l ->
  concat (repeat x n) = flat_map (fun _ => x) l.
Proof.
  intros ->. induction l as [|a l IH]; [reflexivity|]. cbn [length repeat concat flat_map]. rewrite IH. reflexivity.
Qed.

Lemma skipn_nth_none {A} (l : list A) i : nth_error l i = None -> skipn i l = [].
Proof. intros H. apply skipn_all2, nth_error_None, H. Qed.

Lemma pending_block (pre rest : list N) bs :
  (bs <= length pre)%nat ->
  (if (bs <? length pre)%nat then write_block (pre ++ rest) (length pre - bs) bs else Ok [])
  = Ok (map (fun c => [c]) (skipn bs pre)).
Proof.
  intros H. destruct (bs <? length pre)%nat eqn:E.
  - pose proof (write_block_app (skipn bs pre) (firstn bs pre) rest) as W.
    rewrite skipn_length, firstn_length_le in W by exact H.
    rewrite app_assoc, firstn_skipn in W. exact W.
  - apply Nat.ltb_ge in E. rewrite skipn_all2 by lia. reflexivity.
Qed.

Lemma scan_render args : Forall arg_ok args -> forall ps, Forall piece_wf ps ->
  forall pre fuel bs ai buf,
  length buf = buf_len -> (bs <= length pre)%nat -> ~ In 37%N (skipn bs pre) ->
  (length (encode ps) + 2 <= fuel)%nat ->
  exists r, scan (pre ++ encode ps) args fuel None bs (length pre) ai buf = Ok r /\
            length (snd r) = buf_len /\
            concat (fst r) = skipn bs pre ++ render ps (skipn ai args).
Proof.
  intros Hargs ps. induction ps as [|p ps IH]; intros Hwf pre fuel bs ai buf Hl Hbs Hpend Hf.
  - (* end of the format *)
    cbn [encode flat_map] in *. rewrite app_nil_r. destruct fuel as [|fuel]; [simpl in Hf; lia|].
    rewrite scan_None_end by lia. unfold finish.
    assert (Hb : (if negb (bs =? length pre)%nat then write_block pre (length pre - bs) bs else Ok [])
                 = Ok (map (fun c => [c]) (skipn bs pre))).
    { pose proof (pending_block pre [] bs Hbs) as P. rewrite app_nil_r in P.
      destruct (bs =? length pre)%nat eqn:E; cbn [negb].
      - apply Nat.eqb_eq in E. rewrite skipn_all2 by lia. reflexivity.
      - apply Nat.eqb_neq in E. destruct (bs <? length pre)%nat eqn:E2; [exact P|]. apply Nat.ltb_ge in E2. lia. }
    rewrite Hb. cbn [bind]. eexists; split; [reflexivity|]. split; [exact Hl|].
    cbn [fst render]. rewrite concat_app, concat_singles. f_equal.
    apply concat_extra. rewrite skipn_length. reflexivity.
  - inversion Hwf as [|p' ps' Hp Hps]; subst.
    assert (Henc : encode (p :: ps) = encode_piece p ++ encode ps) by reflexivity.
    rewrite Henc in *. rewrite app_length in Hf.
    destruct p as [s | | wd v]; cbn [encode_piece piece_wf] in *.
    + (* literal text *)
      replace fuel with (length s + (fuel - length s))%nat by lia.
      rewrite scan_literal by exact Hp.
      specialize (IH Hps (pre ++ s) (fuel - length s)%nat bs ai buf Hl).
      rewrite app_length, <- app_assoc in IH.
      destruct IH as [r [Er [Hr Hc]]]; [lia | | lia |].
      { rewrite skipn_app. replace (bs - length pre)%nat with 0%nat by lia. cbn [skipn].
        intros Hin. apply in_app_or in Hin. destruct Hin as [Hin|Hin]; [exact (Hpend Hin)|exact (Hp Hin)]. }
      exists r. split; [exact Er|]. split; [exact Hr|]. rewrite Hc. cbn [render].
      rewrite skipn_app. replace (bs - length pre)%nat with 0%nat by lia. cbn [skipn]. rewrite <- app_assoc. reflexivity.
    + (* %% *)
      destruct fuel as [|[|fuel]]; try (cbn [length] in Hf; lia). cbn [app].
      rewrite scan_None_pct by apply nth_error_mid.
      rewrite (pending_block pre (37%N :: 37%N :: encode ps) bs Hbs). cbn [bind].
      rewrite scan_Some_pct.
      2:{ replace (pre ++ 37%N :: 37%N :: encode ps) with ((pre ++ [37%N]) ++ 37%N :: encode ps) by (rewrite <- app_assoc; reflexivity).
          replace (S (length pre)) with (length (pre ++ [37%N])) by (rewrite app_length; cbn [length]; lia).
          apply nth_error_mid. }
      specialize (IH Hps (pre ++ [37%N; 37%N]) fuel (length (pre ++ [37%N; 37%N])) ai buf Hl).
      rewrite <- app_assoc in IH. cbn [app] in IH.
      destruct IH as [r [Er [Hr Hc]]]; [lia | rewrite skipn_all; intros [] | cbn [length] in Hf; lia |].
      rewrite app_length in Er. cbn [length] in Er.
      replace (length pre + 2)%nat with (S (S (length pre))) in Er by lia.
      rewrite Er. cbn [bind]. eexists; split; [reflexivity|]. split; [exact Hr|].
      cbn [fst]. rewrite concat_app, concat_singles. cbn [concat render]. rewrite Hc.
      rewrite skipn_all. reflexivity.
    + (* %<width><verb> *)
      destruct Hp as [Hwd Hlim].
      cbn [length] in Hf. rewrite app_length, map_length in Hf. cbn [length] in Hf.
      destruct fuel as [|fuel]; [lia|]. cbn [app].
      rewrite scan_None_pct by apply nth_error_mid.
      rewrite <- app_assoc. cbn [app].
      rewrite (pending_block pre _ bs Hbs). cbn [bind].
      (* the digits *)
      assert (Hfmt : pre ++ 37%N :: map (fun d => (d + 48)%N) wd ++ verb_char v :: encode ps
                     = (pre ++ [37%N]) ++ map (fun d => (d + 48)%N) wd ++ verb_char v :: encode ps)
        by (rewrite <- app_assoc; reflexivity).
      rewrite Hfmt.
      replace (S (length pre)) with (length (pre ++ [37%N])) by (rewrite app_length; cbn [length]; lia).
      replace fuel with (length wd + (fuel - length wd))%nat by lia.
      change 0 with (Z.of_N 0).
      rewrite (scan_width args wd 0%N (pre ++ [37%N]) (verb_char v :: encode ps)) by assumption.
      fold (width_of wd). set (w := width_of wd) in *.
      (* the verb *)
      destruct (fuel - length wd)%nat as [|fuel'] eqn:Efuel; [lia|].
      assert (Hnth : nth_error ((pre ++ [37%N]) ++ map (fun d => (d + 48)%N) wd ++ verb_char v :: encode ps)
                               (length (pre ++ [37%N]) + length wd) = Some (verb_char v)).
      { rewrite app_assoc. rewrite <- (map_length (fun d => (d + 48)%N) wd), <- app_length. apply nth_error_mid. }
      rewrite (scan_Some_verb _ _ _ _ _ _ _ _ (verb_char v) Hnth) by (destruct v; reflexivity).
      set (pre' := (pre ++ [37%N]) ++ map (fun d => (d + 48)%N) wd ++ [verb_char v]).
      assert (Hpre' : (pre ++ [37%N]) ++ map (fun d => (d + 48)%N) wd ++ verb_char v :: encode ps = pre' ++ encode ps).
      { unfold pre'. rewrite <- !app_assoc. reflexivity. }
      assert (Hlen' : S (length (pre ++ [37%N]) + length wd) = length pre').
      { unfold pre'. rewrite !app_length, map_length. cbn [length]. lia. }
      rewrite Hpre', Hlen'.
      destruct (nth_error args ai) as [a|] eqn:Ea.
      * assert (Haok : arg_ok a) by (eapply Forall_forall; [exact Hargs | eapply nth_error_In; exact Ea]).
        destruct (do_verb_render v a w buf Hl Haok Hlim) as [o [Eo [Ho Hco]]].
        rewrite Eo. cbn [bind].
        destruct (IH Hps pre' fuel' (length pre') (S ai) (snd o) Ho) as [r [Er [Hr Hc]]];
          [lia | rewrite skipn_all; intros [] | lia |].
        rewrite Er. cbn [bind]. eexists; split; [reflexivity|]. split; [exact Hr|].
        cbn [fst]. rewrite !concat_app, concat_singles, Hco, Hc, skipn_all. cbn [app render].
        rewrite (skipn_nth_error_cons ai args a Ea). reflexivity.
      * destruct (IH Hps pre' fuel' (length pre') ai buf Hl) as [r [Er [Hr Hc]]];
          [lia | rewrite skipn_all; intros [] | lia |].
        rewrite Er. cbn [bind]. eexists; split; [reflexivity|]. split; [exact Hr|].
        cbn [fst]. rewrite concat_app, concat_singles. cbn [concat]. rewrite Hc, skipn_all. cbn [app render].
        rewrite (skipn_nth_none args ai Ea). reflexivity.
Qed.

Lemma fprintf_render ps args buf :
  Forall piece_wf ps -> Forall arg_ok args -> length buf = buf_len ->
  exists r, fprintf (encode ps) args buf = Ok r /\ length (snd r) = buf_len /\
            concat (fst r) = render ps args.
Proof.
  intros Hps Hargs Hl. unfold fprintf.
  destruct (scan_render args Hargs ps Hps [] (S (S (length (encode ps)))) 0%nat 0%nat buf Hl)
    as [r [Er [Hr Hc]]]; [cbn [length]; lia | cbn [skipn]; intros [] | lia |].
  exists r. split; [exact Er|]. split; [exact Hr|]. exact Hc.
Qed.

(** ---- statements as Props/C15.v uses them ---- *)
Lemma fprintf_exact_written ps args buf :
  Forall piece_wf ps -> Forall arg_ok args -> length buf = N.to_nat kfmt_numFmtBufLen ->
  written (fprintf (encode ps) args buf) = Ok (render ps args).
Proof.
  intros Hps Hargs Hl. destruct (fprintf_render ps args buf Hps Hargs Hl) as [r [Er [_ Hc]]].
  unfold written. rewrite Er. cbn [bind]. rewrite Hc. reflexivity.
Qed.

Lemma fprintf_never_panics fmt args buf :
  length buf = N.to_nat kfmt_numFmtBufLen -> exists r, fprintf fmt args buf = Ok r.
Proof. intros Hl. destruct (fprintf_total fmt args buf Hl) as [r [Er _]]. exists r. exact Er. Qed.

Lemma fmtint_digits buf k x base :
  length buf = N.to_nat kfmt_numFmtBufLen -> in_range k x -> base = 8 \/ base = 10 \/ base = 16 ->
  exists s buf', fmt_int buf (AInt k x) base 0 = Ok ([s], buf') /\
    let ds := if x <? 0 then tl s else s in
    (x < 0 -> hd 0%N s = 45%N) /\ ds <> [] /\
    Forall (digit_ok (Z.to_N base)) ds /\ value (Z.to_N base) ds = Z.abs_N x.
Proof.
  intros Hl Hr Hb. destruct (fmt_int_exact buf k x base 0 Hl Hb) as [buf' [_ E]].
  destruct (model_in_range k x Hr) as [E1 E2]. rewrite E1, E2 in E.
  eexists. exists buf'. split; [exact E|].
  assert (HbN : (2 <= Z.to_N base)%N /\ (Z.to_N base <= 16)%N) by lia. destruct HbN as [Hb2 Hb16].
  destruct (digits_ok (Z.to_N base) (Z.abs_N x) Hb2 Hb16) as [Hok Hne].
  pose proof (value_digits (Z.to_N base) (Z.abs_N x) Hb2 Hb16) as Hv.
  assert (Hren : render_int (Z.to_N base) (Z.to_N 0) (x <? 0) (Z.abs_N x) =
                 (if x <? 0 then [45%N] else []) ++ digits (Z.to_N base) (Z.abs_N x)).
  { unfold render_int. change (N.min (Z.to_N 0) 31) with 0%N.
    destruct (N.of_nat (length (digits (Z.to_N base) (Z.abs_N x))) <? 0)%N eqn:E0; [lia|].
    cbn [N.sub]. unfold rep. cbn [N.to_nat repeat app].
    destruct (Z.to_N base =? 10)%N; destruct (x <? 0); reflexivity. }
  rewrite Hren. destruct (x <? 0) eqn:Ex; cbn [app tl hd]; (split; [intros; try reflexivity; lia|]); auto.
Qed.
