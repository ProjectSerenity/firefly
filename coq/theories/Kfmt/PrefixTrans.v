(** The hand-written model of kfmt.PrefixWriter.Write (Kfmt/Prefix.v: [prefix_write]) IS the Gallina translation
    that gen/gotrans regenerates from kernel/kfmt/prefix_writer.go on every run (Gen/Trans_kfmt_prefix.v),
    FOR A SINK THAT ACCEPTS EVERY WRITE COMPLETELY (n = len(p), err = nil) - the only sinks the model describes
    (the early ring buffer and a terminal; the model does not have the error-return paths).

    In the translation the calls [w.Sink.Write(b)] are events [GCall "Write" [GBytes b]] pushed on the trace of
    the record (most recent first) and what the sink returns is an oracle [o_Write], a function of that
    trace; [accept_all] is the oracle of such a sink.  The theorem: with a non-nil sink, len(p) an int and
    fuel > len(p), the translation returns (len(p), nil), has made exactly the Writes of the model, in
    order, and leaves the model's bytesAfterPrefix.  With a nil sink a Write that reaches the sink panics. *)
From Coq Require Import NArith ZArith String List Bool Lia.
From Coq Require Import ZifyBool ZifyN ZifyNat.
From FF Require Import Lib.Std Lib.Word Lib.GoOps Lib.GoOpsExt Gen.Trans_kfmt_prefix Kfmt.Fmt Kfmt.Prefix.
Import ListNotations.
Local Open Scope N_scope.

(** the oracle of a sink that accepts everything *)
Definition accept_all (tr : list gcall) : N * option string :=
  match tr with
  | GCall _ (GBytes b :: _) :: _ => (glen b, None)
  | _ => (0, None)
  end.

Definition call_of (c : chunk) : gcall := GCall "Write" [GBytes c].

(** the record: a non-nil sink, the prefix, bytesAfterPrefix, the Writes made so far (most recent first) *)
Definition to_gop (prefix : list N) (bap : N) (tr : list gcall) : go_kfmt_PrefixWriter :=
  mk_go_kfmt_PrefixWriter true prefix bap tr.

Definition seg (p : list N) (s c : nat) : list N := firstn (c - s) (skipn s p).

Lemma firstn_snoc {A} (d : A) : forall k (l : list A), (k < length l)%nat -> firstn (S k) l = firstn k l ++ [nth k l d].
Proof.
  induction k as [|k IH]; intros [|x l] H; cbn [length] in H; try lia; [reflexivity|].
  cbn [firstn nth app]. f_equal. apply IH. lia.
Qed.

Lemma seg_snoc p s c : (s <= c)%nat -> (c < length p)%nat -> seg p s (S c) = seg p s c ++ [nth c p 0].
Proof.
  intros H1 H2. unfold seg. replace (S c - s)%nat with (S (c - s)) by lia.
  rewrite (firstn_snoc 0) by (rewrite skipn_length; lia).
  rewrite nth_skipn_add. do 3 f_equal. lia.
Qed.

Lemma seg_nil p c : seg p c c = [].
Proof. unfold seg. rewrite Nat.sub_diag. reflexivity. Qed.

Lemma seg_length p s c : (s <= c)%nat -> (c <= length p)%nat -> length (seg p s c) = (c - s)%nat.
Proof. intros. unfold seg. rewrite firstn_length, skipn_length. lia. Qed.

Lemma gslices_seg p s c : (s <= c)%nat -> (c <= length p)%nat -> glen p < two63 ->
  gslices 64 p (N.of_nat s) (N.of_nat c) = Some (seg p s c).
Proof.
  intros H1 H2 H3. unfold glen, two63 in *. rewrite gslices_small by (unfold two63; lia).
  unfold gslice, glen. destruct (N.leb_spec (N.of_nat s) (N.of_nat c)); [|lia].
  destruct (N.leb_spec (N.of_nat c) (N.of_nat (length p))); [|lia]. cbn [andb]. unfold seg.
  do 2 f_equal; [lia|]. f_equal. lia.
Qed.

(** what the translation returns, given the model's result *)
Definition pw_result (prefix p : list N) (tr : list gcall) (r : list chunk * N)
  : gres (go_kfmt_PrefixWriter * (N * option string)) :=
  let '(o, b) := r in GOk (to_gop prefix b (rev (map call_of o) ++ tr), (glen p, None)).

(** the code after the loop (copied from the translation; [change] checks that it is the same term) *)
Definition pw_post (p : list N)
  (r : gres ((go_kfmt_PrefixWriter * N * N * N) + (go_kfmt_PrefixWriter * (N * option string))))
  : gres (go_kfmt_PrefixWriter * (N * option string)) :=
  match r with
  | GOk (inl (v_w, v_curIndex, v_startIndex, v_written)) =>
      if gslt 64 v_startIndex v_curIndex
      then
       match gslices 64 p v_startIndex v_curIndex with
       | Some t3 =>
           if f_PrefixWriter_Sink v_w
           then
            let '(v_or2_0, v_or2_1) :=
              accept_all
                (f_PrefixWriter_trace
                   (set_f_PrefixWriter_trace v_w (GCall "Write" [GBytes t3] :: f_PrefixWriter_trace v_w))) in
            if negb (gerr_eqb v_or2_1 None)
            then
             GOk
               (set_f_PrefixWriter_bytesAfterPrefix
                  (set_f_PrefixWriter_trace v_w (GCall "Write" [GBytes t3] :: f_PrefixWriter_trace v_w)) v_or2_0,
                (gw 64 (v_written + v_or2_0), v_or2_1))
            else
             GOk
               (set_f_PrefixWriter_bytesAfterPrefix
                  (set_f_PrefixWriter_trace v_w (GCall "Write" [GBytes t3] :: f_PrefixWriter_trace v_w)) v_or2_0,
                (gw 64 (v_written + v_or2_0), None))
           else GPanic
       | None => GPanic
       end
      else GOk (v_w, (v_written, None))
  | GOk (inr r) => GOk r
  | GPanic => GPanic
  | GFuel => GFuel
  end.

Ltac psimp :=
  cbn [f_PrefixWriter_Sink f_PrefixWriter_Prefix f_PrefixWriter_bytesAfterPrefix f_PrefixWriter_trace
       set_f_PrefixWriter_Sink set_f_PrefixWriter_Prefix set_f_PrefixWriter_bytesAfterPrefix set_f_PrefixWriter_trace
       to_gop accept_all gerr_eqb negb].

Lemma rev_calls (a : list chunk) o tr0 :
  rev (map call_of (a ++ o)) ++ tr0 = rev (map call_of o) ++ (rev (map call_of a) ++ tr0).
Proof. rewrite map_app, rev_app_distr, app_assoc. reflexivity. Qed.

Theorem prefix_write_is_translation prefix bap tr p fuel :
  glen p < two63 -> (length p < fuel)%nat ->
  go_kfmt_PrefixWriter_Write fuel (to_gop prefix bap tr) p accept_all =
  pw_result prefix p tr (prefix_write prefix bap p).
Proof.
  intros Hp Hfuel. pose proof Hp as Hp'. unfold glen, two63 in Hp'. change (2 ^ 63) with 9223372036854775808 in Hp'.
  cbv delta [go_kfmt_PrefixWriter_Write]. cbv beta zeta.
  match goal with |- context [gloop fuel ?f _] => set (step := f) end.
  (* the loop and what follows it, from any position: seg = p[start:cur], written = start *)
  assert (L : forall n cur start bap0 tr0 fu, (start <= cur)%nat -> (cur + n = length p)%nat -> (n < fu)%nat ->
    pw_post p (gloop fu step (to_gop prefix bap0 tr0, N.of_nat cur, N.of_nat start, N.of_nat start)) =
    pw_result prefix p tr0 (pw_loop prefix (seg p start cur) (skipn cur p) bap0)).
  { induction n as [|n IH]; intros cur start bap0 tr0 fu Hsc Hcn Hfu; (destruct fu as [|fu]; [lia|]).
    - (* cur = len(p): the loop ends; the rest of the line, if any, is written *)
      rewrite gloop_break with (s' := (to_gop prefix bap0 tr0, N.of_nat cur, N.of_nat start, N.of_nat start)).
      2:{ unfold step. rewrite gslt_small by (unfold two63, glen; lia). unfold glen.
          destruct (N.ltb_spec (N.of_nat cur) (N.of_nat (length p))); [lia|reflexivity]. }
      rewrite skipn_all2 by lia. cbn [pw_post pw_loop].
      rewrite gslt_small by (unfold two63; lia).
      destruct (N.ltb_spec (N.of_nat start) (N.of_nat cur)) as [A|A].
      + rewrite gslices_seg by (try exact Hp; lia). psimp.
        pose proof (seg_length p start cur ltac:(lia) ltac:(lia)) as SL.
        destruct (seg p start cur) as [|x sg] eqn:Es; [cbn [length] in SL; lia|].
        cbn [pw_result map rev app call_of]. unfold glen at 1 2 3. rewrite SL.
        rewrite gw64_small' by lia. unfold to_gop, glen. repeat f_equal; lia.
      + assert (start = cur) by lia. subst start. rewrite seg_nil.
        cbn [pw_result map rev app]. unfold glen. repeat f_equal. lia.
    - (* one byte *)
      assert (Hlt : (cur < length p)%nat) by lia.
      rewrite (skipn_nth_error_cons cur p _ (nth_error_nth' p 0 Hlt)). set (c := nth cur p 0).
      rewrite gloop_S. unfold step at 1. cbv beta iota zeta.
      rewrite gslt_small by (unfold two63, glen; lia). unfold glen at 1.
      destruct (N.ltb_spec (N.of_nat cur) (N.of_nat (length p))); [|lia].
      rewrite gidxs_small by (unfold two63; lia). rewrite gidx_some by (unfold glen; lia).
      rewrite Nat2N.id. fold c.
      rewrite !(gw64_small' (N.of_nat cur + 1)) by lia.
      replace (N.of_nat cur + 1) with (N.of_nat (S cur)) by lia.
      cbn [pw_loop].
      destruct (c =? 10).
      + rewrite gslices_seg by (try exact Hp; lia). psimp.
        rewrite (seg_snoc p start cur Hsc Hlt). fold c.
        assert (SL : glen (seg p start cur ++ [c]) = N.of_nat (S cur) - N.of_nat start).
        { unfold glen. rewrite app_length, seg_length by lia. cbn [length]. lia. }
        rewrite SL. rewrite (gw64_small' (N.of_nat start + _)) by lia.
        replace (N.of_nat start + (N.of_nat (S cur) - N.of_nat start)) with (N.of_nat (S cur)) by lia.
        change (gw 64 0) with 0.
        unfold glen. destruct (N.eqb_spec (N.of_nat (S cur)) (N.of_nat (length p))) as [E|E]; cbn [negb].
        * (* the line feed is the last byte: no prefix yet *)
          rewrite skipn_all2 by lia.
          specialize (IH (S cur) (S cur) 0 (call_of (seg p start cur ++ [c]) :: tr0) fu ltac:(lia) ltac:(lia) ltac:(lia)).
          rewrite seg_nil, skipn_all2 in IH by lia.
          match goal with |- context [gloop fu step (?X, _, _, _)] =>
            change X with (to_gop prefix 0 (call_of (seg p start cur ++ [c]) :: tr0)) end.
          exact IH.
        * psimp.
          specialize (IH (S cur) (S cur) 0 (call_of prefix :: call_of (seg p start cur ++ [c]) :: tr0) fu ltac:(lia) ltac:(lia) ltac:(lia)).
          rewrite seg_nil in IH.
          match goal with |- context [gloop fu step (?X, _, _, _)] =>
            change X with (to_gop prefix 0 (call_of prefix :: call_of (seg p start cur ++ [c]) :: tr0)) end.
          rewrite IH.
          destruct (skipn (S cur) p) as [|y r] eqn:Er.
          { apply (f_equal (@length N)) in Er. rewrite skipn_length in Er. cbn [length] in Er. lia. }
          destruct (pw_loop prefix [] (y :: r) 0) as [o b].
          cbn [pw_result app map rev]. rewrite <- !app_assoc. reflexivity.
      + specialize (IH (S cur) start bap0 tr0 fu ltac:(lia) ltac:(lia) ltac:(lia)).
        rewrite (seg_snoc p start cur Hsc Hlt) in IH. fold c in IH. exact IH. }
  (* the function: the prefix in front of a new line, then the loop from 0 *)
  unfold prefix_write.
  pose proof (L (length p) 0%nat 0%nat bap tr fuel ltac:(lia) ltac:(lia) Hfuel) as L0.
  pose proof (L (length p) 0%nat 0%nat bap (call_of prefix :: tr) fuel ltac:(lia) ltac:(lia) Hfuel) as L1.
  rewrite seg_nil in L0, L1. cbn [skipn N.of_nat] in L0, L1.
  psimp. unfold glen at 1.
  destruct (N.eqb_spec bap 0) as [->|Hb]; cbn [andb].
  - destruct p as [|x p'].
    + exact L0.
    + replace (negb (N.of_nat (length (x :: p')) =? 0)) with true
        by (cbn [length]; destruct (N.eqb_spec (N.of_nat (S (length p'))) 0); [lia|reflexivity]).
      cbn [negb andb app].
      match goal with |- context [gloop fuel step (?X, _, _, _)] => change X with (to_gop prefix 0 (call_of prefix :: tr)) end.
      change (pw_post (x :: p') (gloop fuel step (to_gop prefix 0 (call_of prefix :: tr), 0, 0, 0)) =
              pw_result prefix (x :: p') tr (let '(o, b) := pw_loop prefix [] (x :: p') 0 in ([prefix] ++ o, b))).
      rewrite L1. destruct (pw_loop prefix [] (x :: p') 0) as [o b].
      cbn [pw_result app map rev]. rewrite <- app_assoc. reflexivity.
  - change (pw_post p (gloop fuel step (to_gop prefix bap tr, 0, 0, 0)) =
            pw_result prefix p tr (let '(o, b) := pw_loop prefix [] p bap in ([] ++ o, b))).
    rewrite L0. destruct (pw_loop prefix [] p bap) as [o b]. reflexivity.
Qed.

(** a nil sink: the first Write that reaches it (here: the prefix of a new line) is a run-time panic *)
Theorem prefix_write_nil_sink prefix tr x p fuel o :
  go_kfmt_PrefixWriter_Write fuel (mk_go_kfmt_PrefixWriter false prefix 0 tr) (x :: p) o = GPanic.
Proof.
  cbv delta [go_kfmt_PrefixWriter_Write]. cbv beta zeta. psimp. unfold glen. cbn [length].
  destruct (N.eqb_spec (N.of_nat (S (length p))) 0); [lia|]. reflexivity.
Qed.
