(** kfmt.SetOutputSink / kfmt.GetOutputSink (kernel/kfmt/fmt.go) against the Gallina translation regenerated on every run
    (Gen/Trans_kfmt_sink.v; gen/gotrans/ext_hal.go), and against the sink switch of the bring-up model (Hal/Model.v).

    In the translation the package variable [outputSink] (an io.Writer) is a reference (0 = nil, the terminal [t] of
    the model is [t + 1]); [&earlyPrintBuffer] is the reference [a] (a parameter); [io.Copy(w, &earlyPrintBuffer)] is
    library code: it is the event [GCall "io.Copy" [GNum w; GNum a]], and its CONTRACT - read the ring until EOF and
    hand every chunk to w.Write - is what the model's [drain] + [deliver] say ([io_copy_contract]; ringBuffer.Read
    itself is tied by translation: C16_ring_read_is_translation). *)
From Coq Require Import NArith ZArith String List Bool Lia.
From FF Require Import Lib.Word Lib.GoOps Lib.GoOpsHal Gen.Trans_kfmt_sink.
From FF Require Import Kfmt.Fmt Kfmt.Ring Hal.Model.
Import ListNotations.
Local Open Scope N_scope.

(** the value of the variable outputSink / what GetOutputSink returns *)
Definition sink_var (s : sink) : N := match s with SRing => 0 | STTY t => t + 1 end.
Definition sink_ref (a : N) (s : sink) : N := match s with SRing => a | STTY t => t + 1 end.

Definition to_ws (tr : list gcall) (st : hal) : go_kfmt_world := mk_go_kfmt_world tr (sink_var (h_sink st)).

(** the contract of io.Copy(t, &earlyPrintBuffer) on the model state *)
Definition io_copy_contract (t : N) (st : hal) : outcome hal :=
  r <- drain drain_fuel (h_ring st) ;; deliver (STTY t) (fst r) (set_ring st (snd r)).

(** the model's SetOutputSink IS: switch the sink, then the contract of the one io.Copy call *)
Lemma set_output_sink_contract t st : set_output_sink t st = io_copy_contract t (set_sink st (STTY t)).
Proof. reflexivity. Qed.

Theorem setOutputSink_is_translation tr st t a :
  go_kfmt_SetOutputSink (to_ws tr st) (t + 1) a
    = GOk (to_ws (GCall "io.Copy" [GNum (t + 1); GNum a] :: tr) (set_sink st (STTY t)), tt) /\
  set_output_sink t st = io_copy_contract t (set_sink st (STTY t)).
Proof.
  split; [|reflexivity]. unfold go_kfmt_SetOutputSink, to_ws.
  cbn [set_f_world_outputSink f_world_trace f_world_outputSink set_f_world_trace h_sink set_sink sink_var].
  destruct (N.eqb_spec (t + 1) 0); [lia|]. reflexivity.
Qed.

(** SetOutputSink(nil): back to the early buffer, nothing is copied *)
Theorem setOutputSink_nil tr st a :
  go_kfmt_SetOutputSink (to_ws tr st) 0 a = GOk (to_ws tr (set_sink st SRing), tt).
Proof. reflexivity. Qed.

(** whatever SetOutputSink's io.Copy delivers: afterwards the sink is the terminal, the devices are untouched *)
Theorem setOutputSink_model t st st' :
  set_output_sink t st = Ok st' ->
  h_sink st' = STTY t /\ h_console st' = h_console st /\ h_tty st' = h_tty st /\ h_active st' = h_active st.
Proof.
  unfold set_output_sink. destruct (drain drain_fuel _) as [[cs rb]| |]; cbn [bind]; try discriminate.
  unfold deliver. cbn [fst snd]. intros E. injection E as <-. destruct (concat cs); repeat split; reflexivity.
Qed.

Theorem getOutputSink_is_translation tr st a :
  go_kfmt_GetOutputSink (to_ws tr st) a = GOk (to_ws tr st, sink_ref a (h_sink st)).
Proof.
  unfold go_kfmt_GetOutputSink, to_ws. cbn [f_world_outputSink]. destruct (h_sink st) as [|t]; cbn [sink_var sink_ref].
  - reflexivity.
  - destruct (N.eqb_spec (t + 1) 0); [lia|]. reflexivity.
Qed.
