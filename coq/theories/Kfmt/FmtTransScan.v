(** Fprintf's scanner (Kfmt/Fmt.v: [scan], [finish], [write_block], [do_verb]) against the translation regenerated
    from kernel/kfmt/fmt.go (Gen/Trans_kfmt_fmt.v: [go_kfmt_Fprintf] and its loops): a simulation between the
    model's scanner state (mode, blockStart, blockEnd, nextArgIndex, numFmtBuf) and the loop states of the translation;
    the verb cases reuse Kfmt/FmtTrans.v. *)
From Coq Require Import NArith ZArith String List Bool Lia.
From Coq Require Import ZifyBool ZifyN ZifyNat.
From FF Require Import Lib.Word Lib.GoOps Lib.GoOpsExt Lib.GoOpsFmt Gen.Consts_kfmt Gen.Trans_kfmt_fmt.
From FF Require Import Kfmt.Fmt Kfmt.FmtSpec Kfmt.FmtProofs Kfmt.FmtScanProofs Kfmt.FmtTrans.
Import ListNotations.
Local Open Scope N_scope.

Lemma loop7_is_loop1 : go_kfmt_Fprintf_loop7 = go_kfmt_Fprintf_loop1. Proof. reflexivity. Qed.
Lemma loop5_is_loop3 : go_kfmt_Fprintf_loop5 = go_kfmt_Fprintf_loop3. Proof. reflexivity. Qed.
Lemma loop9_is_loop8 : go_kfmt_Fprintf_loop9 = go_kfmt_Fprintf_loop8. Proof. reflexivity. Qed.

Definition two62 : N := 4611686018427387904.

(** [for i := blockStart; i < blockEnd; i++ { singleByte[0] = format[i]; doWrite(w, singleByte) }] *)
Lemma block_sim w fmt gargs bsN flN aiN ch pad buf : (length fmt < N.to_nat two62)%nat ->
  forall n i tr x G blk,
  write_block fmt n i = Ok blk -> (n < G)%nat -> (i + n <= length fmt)%nat ->
  exists y,
    gloop G (go_kfmt_Fprintf_loop1 gargs (N.of_nat (i + n)) bsN flN fmt aiN ch pad w) (mkw tr buf [x], N.of_nat i)
      = GOk (inl (mkw (pushed w blk tr) buf [y], N.of_nat (i + n))).
Proof.
  intros Hl. unfold two62 in Hl.
  induction n as [|n IH]; intros i tr x G blk Hw HG Hin; (destruct G as [|G]; [lia|]);
    rewrite gloop_S; unfold go_kfmt_Fprintf_loop1 at 1; cbv beta iota zeta; wsimp; cbn [write_block] in Hw;
    rewrite gslt_small by (rewrite two63_lit; lia).
  - injection Hw as <-. rewrite Nat.add_0_r. rewrite N.ltb_irrefl. exists x. reflexivity.
  - destruct (N.ltb_spec (N.of_nat i) (N.of_nat (i + S n))); [|lia].
    unfold fget in Hw. destruct (nth_error fmt i) as [c|] eqn:Ec; [|discriminate]. cbn [bind] in Hw.
    rewrite single_ok in Hw. cbn [bind] in Hw.
    destruct (write_block fmt n (S i)) as [r| |] eqn:Er; try discriminate. cbn [bind] in Hw. injection Hw as <-.
    rewrite gidxs_small by (rewrite two63_lit; lia). unfold gidx. rewrite Nat2N.id, Ec.
    change (gset [x] 0 c) with (Some [c]). cbv beta iota. wsimp.
    rewrite gw64_succ by lia.
    destruct (IH (S i) (ev w [c] :: tr) c G r Er ltac:(lia) ltac:(lia)) as [y Hy].
    exists y. replace (i + S n)%nat with (S i + n)%nat by lia.
    transitivity (gloop G (go_kfmt_Fprintf_loop1 gargs (N.of_nat (S i + n)) bsN flN fmt aiN ch pad w)
                    (mkw (ev w [c] :: tr) buf [c], N.of_nat (S i))); [reflexivity|].
    rewrite Hy, pushed_cons. reflexivity.
Qed.

(** [for ; nextArgIndex < len(args); nextArgIndex++ { doWrite(w, errExtraArg) }] *)
Lemma extras_sim w fmt gargs beN bsN flN ch pad buf sb : (length gargs < N.to_nat two62)%nat ->
  forall k ai tr G, (ai + k = length gargs)%nat -> (k < G)%nat ->
  gloop G (go_kfmt_Fprintf_loop8 gargs beN bsN flN fmt ch pad w) (mkw tr buf sb, N.of_nat ai)
    = GOk (inl (mkw (pushed w (repeat kfmt_errExtraArg k) tr) buf sb, N.of_nat (length gargs))).
Proof.
  intros Hl. unfold two62 in Hl.
  induction k as [|k IH]; intros ai tr G Hk HG; (destruct G as [|G]; [lia|]);
    rewrite gloop_S; unfold go_kfmt_Fprintf_loop8 at 1; cbv beta iota zeta; wsimp;
    rewrite gslt_small by (rewrite two63_lit; unfold glenA; lia); unfold glenA.
  - destruct (N.ltb_spec (N.of_nat ai) (N.of_nat (length gargs))); [lia|]. replace ai with (length gargs) by lia. reflexivity.
  - destruct (N.ltb_spec (N.of_nat ai) (N.of_nat (length gargs))); [|lia].
    rewrite gw64_succ by lia.
    transitivity (gloop G (go_kfmt_Fprintf_loop8 gargs beN bsN flN fmt ch pad w)
                    (mkw (ev w kfmt_errExtraArg :: tr) buf sb, N.of_nat (S ai))); [reflexivity|].
    rewrite IH by lia. cbn [repeat]. rewrite pushed_cons. reflexivity.
Qed.

(** what Fprintf does after its outer loop (copied from the translation; [fprintf_unfold] checks it is the same term) *)
Definition fp_post (FU : nat) (w : bool) (fmt : list N) (gargs : list gany)
  (r : gres ((go_kfmt_world * N * N * N * N * N) + (go_kfmt_world * unit))) : gres (go_kfmt_world * unit) :=
  match r with
  | GPanic => GPanic | GFuel => GFuel
  | GOk (inr r) => GOk r
  | GOk (inl st) => let '(v_world, v_blockEnd, v_blockStart, v_nextArgIndex, v_nextCh, v_padLen) := st in
    if negb (v_blockStart =? v_blockEnd)
    then
      match gloop (R := (go_kfmt_world * unit)%type) FU
              (go_kfmt_Fprintf_loop7 gargs v_blockEnd v_blockStart (glen fmt) fmt v_nextArgIndex v_nextCh v_padLen w)
              (v_world, v_blockStart) with
      | GPanic => GPanic | GFuel => GFuel | GOk (inr r) => GOk r
      | GOk (inl st) => let '(v_world, v_i) := st in
        match gloop (R := (go_kfmt_world * unit)%type) FU
                (go_kfmt_Fprintf_loop8 gargs v_blockEnd v_blockStart (glen fmt) fmt v_nextCh v_padLen w)
                (v_world, v_nextArgIndex) with
        | GPanic => GPanic | GFuel => GFuel | GOk (inr r) => GOk r
        | GOk (inl st) => let '(v_world, v_nextArgIndex) := st in GOk (v_world, tt)
        end
      end
    else
      match gloop (R := (go_kfmt_world * unit)%type) FU
              (go_kfmt_Fprintf_loop9 gargs v_blockEnd v_blockStart (glen fmt) fmt v_nextCh v_padLen w)
              (v_world, v_nextArgIndex) with
      | GPanic => GPanic | GFuel => GFuel | GOk (inr r) => GOk r
      | GOk (inl st) => let '(v_world, v_nextArgIndex) := st in GOk (v_world, tt)
      end
  end.

Lemma fprintf_unfold FU wd w fmt gargs :
  go_kfmt_Fprintf FU wd w fmt gargs =
  fp_post FU w fmt gargs (gloop FU (go_kfmt_Fprintf_loop6 FU gargs (glen fmt) fmt w) (wd, 0, 0, 0, 0, 0)).
Proof. reflexivity. Qed.

(** after the outer loop: the trailing literal block, then one marker per unused argument *)
Lemma finish_sim FU w fmt gargs tr buf x bs be ai ch pad cs buf' :
  (length fmt < N.to_nat two62)%nat -> (length gargs < N.to_nat two62)%nat ->
  (length fmt < FU)%nat -> (length gargs < FU)%nat ->
  scan_inv fmt None bs be -> (ai <= length gargs)%nat ->
  finish fmt (map of_gany gargs) bs be ai buf = Ok (cs, buf') ->
  exists y,
    fp_post FU w fmt gargs (GOk (inl (mkw tr buf [x], N.of_nat be, N.of_nat bs, N.of_nat ai, ch, pad)))
      = GOk (mkw (pushed w cs tr) buf' [y], tt).
Proof.
  intros Hl Ha HF1 HF2 [Hbs Hbe] Hai. unfold finish. rewrite map_length. unfold two62 in *.
  cbn [fp_post]. rewrite loop7_is_loop1, loop9_is_loop8.
  destruct (Nat.eqb_spec bs be) as [->|Hne]; cbn [negb].
  - cbn [bind]. intros E. injection E as <- <-. rewrite N.eqb_refl. cbn [negb].
    rewrite (extras_sim w fmt gargs _ _ _ ch pad buf [x] Ha (length gargs - ai) ai tr FU) by lia.
    exists x. reflexivity.
  - destruct (write_block fmt (be - bs) bs) as [blk| |] eqn:Ew; cbn [bind]; try discriminate.
    intros E. injection E as <- <-.
    destruct (N.eqb_spec (N.of_nat bs) (N.of_nat be)); [lia|]. cbn [negb].
    destruct (block_sim w fmt gargs (N.of_nat bs) (glen fmt) (N.of_nat ai) ch pad buf Hl (be - bs) bs tr x FU blk Ew
                ltac:(lia) ltac:(lia)) as [y Hy].
    replace (bs + (be - bs))%nat with be in Hy by lia. rewrite Hy.
    rewrite (extras_sim w fmt gargs _ _ _ ch pad buf [y] Ha (length gargs - ai) ai _ FU) by lia.
    exists y. rewrite pushed_app. reflexivity.
Qed.

(** ---- one verb ---- *)
Definition verb_call (FU : nat) (w : bool) (ch : N) (wd : go_kfmt_world) (g : gany) (p : N) : gres (go_kfmt_world * unit) :=
  if ch =? 111 then go_kfmt_fmtInt FU wd w g 8 p
  else if ch =? 100 then go_kfmt_fmtInt FU wd w g 10 p
  else if ch =? 120 then go_kfmt_fmtInt FU wd w g 16 p
  else if ch =? 115 then go_kfmt_fmtString FU wd w g p
  else if ch =? 116 then go_kfmt_fmtBool wd w g
  else GOk (wd, tt).

(** strings and byte slices as Go can have them: len is an int *)
Definition str_ok (g : gany) : Prop :=
  match g with GAStr s | GABytes s => glen s < 9223372036854775808 | _ => True end.

Lemma fmt_string_len g pd c : fmt_string (of_gany g) pd = Ok c ->
  match g with
  | GAStr s | GABytes s => length (List.concat c) = (Z.to_nat (wrap_int (pd - Z.of_nat (length s))) + length s)%nat
  | _ => True
  end.
Proof.
  destruct g; cbn [of_gany fmt_string]; try (intros; exact I); rewrite fmt_repeat_ok; cbn [bind].
  - rewrite singles_ok. cbn [bind]. intros E. injection E as <-.
    rewrite concat_app, app_length, concat_repeat_single, repeat_length, concat_singles. reflexivity.
  - intros E. injection E as <-.
    rewrite concat_app, app_length, concat_repeat_single, repeat_length. cbn [List.concat]. rewrite app_nil_r. reflexivity.
Qed.

Lemma verb_sim FU w ch tr buf x g p o :
  buf_ok buf -> gany_wf g -> str_ok g -> p < 2 ^ 64 -> (34 <= FU)%nat ->
  do_verb ch (of_gany g) (sz p) buf = Ok o -> (length (List.concat (fst o)) < FU)%nat ->
  exists y, verb_call FU w ch (mkw tr buf [x]) g p = GOk (mkw (pushed w (fst o) tr) (snd o) [y], tt) /\ buf_ok (snd o).
Proof.
  intros Hb Hg Hs Hp HF. unfold do_verb, verb_call.
  assert (HI : forall base, base = 8 \/ base = 10 \/ base = 16 ->
    fmt_int buf (of_gany g) (Z.of_N base) (sz p) = Ok o ->
    exists y, go_kfmt_fmtInt FU (mkw tr buf [x]) w g base p = GOk (mkw (pushed w (fst o) tr) (snd o) [y], tt) /\ buf_ok (snd o)).
  { intros base Hbase E.
    destruct (fmtInt_is_translation FU w tr buf [x] g base p Hb Hg Hbase Hp HF) as [cs [buf' [E' [T Hb']]]].
    rewrite E' in E. injection E as <-. exists x. split; [exact T|exact Hb']. }
  destruct (ch =? 111); [intros E _; apply (HI 8); [tauto|exact E]|].
  destruct (ch =? 100); [intros E _; apply (HI 10); [tauto|exact E]|].
  destruct (ch =? 120); [intros E _; apply (HI 16); [tauto|exact E]|].
  destruct (ch =? 115).
  - destruct (fmt_string (of_gany g) (sz p)) as [c| |] eqn:Es; cbn [bind]; try discriminate.
    intros E. injection E as <-. cbn [fst snd]. intros Hlen.
    pose proof (fmt_string_len g (sz p) c Es) as L.
    destruct (fmtString_is_translation FU w tr buf x g p Hp) as [cs [y [E' T]]].
    { destruct g; try exact I; cbn [str_ok] in Hs; (split; [exact Hs|]; lia). }
    rewrite E' in Es. injection Es as <-. exists y. split; [exact T|exact Hb].
  - destruct (ch =? 116); intros E _; injection E as <-; cbn [fst snd]; exists x; (split; [|exact Hb]).
    + apply fmtBool_is_translation.
    + reflexivity.
Qed.

Lemma gidxsA_small_some {A} (l : list A) i a : N.of_nat i < 4611686018427387904 -> nth_error l i = Some a ->
  gidxsA 64 l (N.of_nat i) = Some a.
Proof.
  intros Hi E. unfold gidxsA. rewrite gisneg_small by (rewrite two63_lit; lia). unfold gidxA. rewrite Nat2N.id. exact E.
Qed.

(** ---- the scanner ---- *)
Lemma gmul_zi a b : gw 64 (zi a * zi b) = zi (a * b).
Proof.
  unfold gw, zi. change (2 ^ 64) with 18446744073709551616.
  apply N2Z.inj. rewrite N2Z.inj_mod, N2Z.inj_mul, !Z2N.id; try (apply Z.mod_pos_bound; lia).
  change (Z.of_N 18446744073709551616) with 18446744073709551616%Z. symmetry. apply Zmult_mod.
Qed.

(** padLen = (padLen * 10) + int(nextCh-'0') *)
Lemma pad_digit p c : p < 2 ^ 64 ->
  let p' := gw 64 (gw 64 (p * 10) + gw 64 (gsub 8 c 48)) in
  p' < 2 ^ 64 /\ sz p' = wrap_int (sz p * 10 + Z.of_N (w8 (c + 256 - 48))).
Proof.
  intros Hp. cbv zeta. split; [unfold gw at 1; apply N.mod_lt; discriminate|].
  assert (Hd : gsub 8 c 48 = w8 (c + 256 - 48)) by reflexivity.
  rewrite Hd. set (d := w8 (c + 256 - 48)).
  assert (Hd256 : d < 256) by (unfold d, w8, two8; apply N.mod_lt; discriminate).
  rewrite (gw64_small' d) by (rewrite two64_lit; lia).
  rewrite <- (zi_sz p) at 1 by exact Hp. change 10 with (zi 10). rewrite gmul_zi.
  rewrite <- (zi_of_N d) at 1 by (rewrite two64_lit; lia). rewrite gadd_zi. apply sz_zi_wrap.
Qed.

Section ScanSim.
  Variables (FU : nat) (w : bool) (fmt : list N) (gargs : list gany).
  Hypothesis Hfl : (length fmt < N.to_nat two62)%nat.
  Hypothesis Hal : (length gargs < N.to_nat two62)%nat.
  Hypothesis HF34 : (34 <= FU)%nat.
  Hypothesis HFf : (S (length fmt) < FU)%nat.
  Hypothesis HFa : (length gargs < FU)%nat.
  Hypothesis Hwf : Forall gany_wf gargs.
  Hypothesis Hso : Forall str_ok gargs.

  Notation args := (map of_gany gargs).
  Notation step6 := (go_kfmt_Fprintf_loop6 FU gargs (glen fmt) fmt w).
  Notation step3 bsN := (go_kfmt_Fprintf_loop3 FU gargs bsN (glen fmt) fmt w).
  Notation R := (go_kfmt_world * unit)%type.

  (** the outer loop resumes after the labelled inner loop: blockStart, blockEnd = blockEnd+1, blockEnd+1 *)
  Definition inner_k (F : nat) (r : gres ((go_kfmt_world * N * N * N * N) + R))
    : gres ((go_kfmt_world * N * N * N * N * N) + R) :=
    match r with
    | GPanic => GPanic | GFuel => GFuel
    | GOk (inr r0) => GOk (inr r0)
    | GOk (inl st) => let '(wd, be, ai, ch, pad) := st in
        gloop F step6 (wd, gw 64 (be + 1), gw 64 (be + 1), ai, ch, pad)
    end.

  Lemma succ_be be : (be <= S (length fmt))%nat -> gw 64 (N.of_nat be + 1) = N.of_nat (S be).
  Proof. intros H. unfold two62 in Hfl. apply gw64_succ. lia. Qed.

  Lemma succ_ai ai : (ai <= length gargs)%nat -> gw 64 (N.of_nat ai + 1) = N.of_nat (S ai).
  Proof. intros H. unfold two62 in Hal. apply gw64_succ. lia. Qed.

  (** [blockEnd < fmtLen] and [format[blockEnd]] *)
  Lemma fmt_end be : (length fmt <= be <= S (length fmt))%nat -> gslt 64 (N.of_nat be) (glen fmt) = false.
  Proof.
    intros H. unfold two62 in Hfl. rewrite gslt_small by (rewrite two63_lit; unfold glen; lia).
    apply N.ltb_ge. unfold glen. lia.
  Qed.

  Lemma fmt_read be c : nth_error fmt be = Some c ->
    gslt 64 (N.of_nat be) (glen fmt) = true /\ gidxs 64 fmt (N.of_nat be) = Some c.
  Proof.
    intros Ec. assert (be < length fmt)%nat by (apply nth_error_Some; congruence). unfold two62 in Hfl. split.
    - rewrite gslt_small by (rewrite two63_lit; unfold glen; lia). apply N.ltb_lt. unfold glen. lia.
    - rewrite gidxs_small by (rewrite two63_lit; lia). unfold gidx. rewrite Nat2N.id. exact Ec.
  Qed.

  (** one iteration of the labelled inner loop, by the character it reads *)
  Lemma step3_end bsN wd be ai ch p : (length fmt <= be <= S (length fmt))%nat ->
    step3 bsN (wd, N.of_nat be, ai, ch, p) = GOk (GBreak (wd, N.of_nat be, ai, ch, p)).
  Proof. intros H. unfold go_kfmt_Fprintf_loop3. rewrite fmt_end by exact H. reflexivity. Qed.

  Lemma step3_pct bsN tr buf x be ai ch p : nth_error fmt be = Some 37 ->
    step3 bsN (mkw tr buf [x], N.of_nat be, ai, ch, p)
      = GOk (GBreak (mkw (ev w [37] :: tr) buf [37], N.of_nat be, ai, 37, p)).
  Proof.
    intros Ec. destruct (fmt_read _ _ Ec) as [E1 E2]. unfold go_kfmt_Fprintf_loop3. rewrite E1, E2. reflexivity.
  Qed.

  Lemma step3_digit bsN wd be ai ch p c : nth_error fmt be = Some c -> is_digit c = true ->
    step3 bsN (wd, N.of_nat be, ai, ch, p)
      = GOk (GNext (wd, N.of_nat (S be), ai, c, gw 64 (gw 64 (p * 10) + gw 64 (gsub 8 c 48)))).
  Proof.
    intros Ec Hd. destruct (fmt_read _ _ Ec) as [E1 E2].
    assert (be < length fmt)%nat by (apply nth_error_Some; congruence).
    unfold go_kfmt_Fprintf_loop3. rewrite E1, E2. cbv beta iota zeta.
    destruct (N.eqb_spec c 37) as [->|_]; [discriminate Hd|].
    unfold is_digit in Hd. rewrite Hd, succ_be by lia. reflexivity.
  Qed.

  Lemma step3_other bsN tr buf sb be ai ch p c :
    nth_error fmt be = Some c -> c <> 37 -> is_digit c = false -> is_verb c = false ->
    step3 bsN (mkw tr buf sb, N.of_nat be, ai, ch, p)
      = GOk (GNext (mkw (ev w kfmt_errNoVerb :: tr) buf sb, N.of_nat (S be), ai, c, p)).
  Proof.
    intros Ec Hc Hd Hv. destruct (fmt_read _ _ Ec) as [E1 E2].
    assert (be < length fmt)%nat by (apply nth_error_Some; congruence).
    unfold go_kfmt_Fprintf_loop3. rewrite E1, E2. cbv beta iota zeta.
    destruct (N.eqb_spec c 37); [contradiction|].
    unfold is_digit in Hd. unfold is_verb in Hv. rewrite Hd, Hv, succ_be by lia. reflexivity.
  Qed.

  Lemma step3_missing bsN tr buf sb be ai ch p c :
    nth_error fmt be = Some c -> is_verb c = true -> (length gargs <= ai <= S (length gargs))%nat ->
    step3 bsN (mkw tr buf sb, N.of_nat be, N.of_nat ai, ch, p)
      = GOk (GBreak (mkw (ev w kfmt_errMissingArg :: tr) buf sb, N.of_nat be, N.of_nat ai, c, p)).
  Proof.
    intros Ec Hv Hai. destruct (fmt_read _ _ Ec) as [E1 E2]. destruct (is_verb_class c Hv) as [E37 Ed].
    unfold go_kfmt_Fprintf_loop3. rewrite E1, E2. cbv beta iota zeta.
    unfold is_digit in Ed. unfold is_verb in Hv. rewrite E37, Ed, Hv.
    unfold two62 in Hal. rewrite gsle_small by (rewrite two63_lit; unfold glenA; lia).
    unfold glenA. destruct (N.leb_spec (N.of_nat (length gargs)) (N.of_nat ai)); [reflexivity|lia].
  Qed.

  Lemma step3_verb bsN wd be ai ch p c g :
    nth_error fmt be = Some c -> is_verb c = true -> nth_error gargs ai = Some g ->
    step3 bsN (wd, N.of_nat be, N.of_nat ai, ch, p)
      = match verb_call FU w c wd g p with
        | GOk (wd', _) => GOk (GBreak (wd', N.of_nat be, N.of_nat (S ai), c, p))
        | GPanic => GPanic
        | GFuel => GFuel
        end.
  Proof.
    intros Ec Hv Eg. destruct (fmt_read _ _ Ec) as [E1 E2]. destruct (is_verb_class c Hv) as [E37 Ed].
    assert (Hai : (ai < length gargs)%nat) by (apply nth_error_Some; congruence).
    unfold go_kfmt_Fprintf_loop3. rewrite E1, E2. cbv beta iota zeta.
    unfold is_digit in Ed. unfold is_verb in Hv. rewrite E37, Ed, Hv.
    pose proof Hal as Hal'. unfold two62 in Hal'.
    rewrite gsle_small by (rewrite two63_lit; unfold glenA; lia).
    unfold glenA at 1. destruct (N.leb_spec (N.of_nat (length gargs)) (N.of_nat ai)); [lia|].
    rewrite gidxsA_small_some with (a := g) by (try exact Eg; lia). rewrite succ_ai by lia.
    unfold verb_call.
    destruct (c =? 111); [reflexivity|]. destruct (c =? 100); [reflexivity|]. destruct (c =? 120); [reflexivity|].
    destruct (c =? 115); [reflexivity|]. destruct (c =? 116); reflexivity.
  Qed.

  Lemma inner_k_break F wd be ai ch p : (be <= length fmt)%nat ->
    inner_k F (GOk (inl (wd, N.of_nat be, ai, ch, p)))
      = gloop F step6 (wd, N.of_nat (S be), N.of_nat (S be), ai, ch, p).
  Proof. intros H. cbn [inner_k]. rewrite succ_be by lia. reflexivity. Qed.

  (** one iteration of the outer loop *)
  Lemma step6_end wd be bs ai ch pad : (length fmt <= be <= S (length fmt))%nat ->
    step6 (wd, N.of_nat be, bs, ai, ch, pad) = GOk (GBreak (wd, N.of_nat be, bs, ai, ch, pad)).
  Proof. intros H. unfold go_kfmt_Fprintf_loop6. rewrite fmt_end by exact H. reflexivity. Qed.

  Lemma step6_lit wd be bs ai ch pad c : nth_error fmt be = Some c -> c <> 37 ->
    step6 (wd, N.of_nat be, bs, ai, ch, pad) = GOk (GNext (wd, N.of_nat (S be), bs, ai, c, pad)).
  Proof.
    intros Ec Hc. destruct (fmt_read _ _ Ec) as [E1 E2].
    assert (be < length fmt)%nat by (apply nth_error_Some; congruence).
    unfold go_kfmt_Fprintf_loop6. rewrite E1, E2. cbv beta iota zeta.
    destruct (N.eqb_spec c 37); [contradiction|]. cbn [negb]. rewrite succ_be by lia. reflexivity.
  Qed.

  (** '%': the pending literal block [bs, be) is flushed, then the inner loop runs from be+1 with padLen = 0 *)
  Lemma loop6_pct F tr buf x be bs ai ch pad blk :
    nth_error fmt be = Some 37 -> (bs <= be)%nat ->
    (if (bs <? be)%nat then write_block fmt (be - bs) bs else Ok []) = Ok blk ->
    exists y,
      gloop (S F) step6 (mkw tr buf [x], N.of_nat be, N.of_nat bs, N.of_nat ai, ch, pad)
      = inner_k F (gloop FU (step3 (N.of_nat bs)) (mkw (pushed w blk tr) buf [y], N.of_nat (S be), N.of_nat ai, 37, 0)).
  Proof.
    intros Ec Hbs Ew. destruct (fmt_read _ _ Ec) as [E1 E2].
    assert (Hlt : (be < length fmt)%nat) by (apply nth_error_Some; congruence).
    pose proof Hfl as Hfl'. unfold two62 in Hfl'.
    rewrite gloop_S. unfold go_kfmt_Fprintf_loop6 at 1. rewrite E1, E2. cbv beta iota zeta. cbn [N.eqb Pos.eqb negb].
    rewrite loop5_is_loop3, succ_be by lia. change (gw 64 0) with 0.
    rewrite gslt_small by (rewrite two63_lit; lia).
    revert Ew. destruct (Nat.ltb_spec bs be) as [Hb1|Hb1]; destruct (N.ltb_spec (N.of_nat bs) (N.of_nat be)) as [Hb2|Hb2];
      try lia; intros Ew.
    - destruct (block_sim w fmt gargs (N.of_nat bs) (glen fmt) (N.of_nat ai) 37 pad buf Hfl (be - bs) bs tr x FU blk Ew
                  ltac:(lia) ltac:(lia)) as [y1 Hy1].
      replace (bs + (be - bs))%nat with be in Hy1 by lia. rewrite Hy1. cbv beta iota.
      exists y1.
      destruct (gloop FU (step3 (N.of_nat bs)) (mkw (pushed w blk tr) buf [y1], N.of_nat (S be), N.of_nat ai, 37, 0))
        as [[[[[[wd1 be1] ai1] ch1] pad1]|r0]| |]; reflexivity.
    - injection Ew as <-. exists x. change (pushed w [] tr) with tr.
      destruct (gloop FU (step3 (N.of_nat bs)) (mkw tr buf [x], N.of_nat (S be), N.of_nat ai, 37, 0))
        as [[[[[[wd1 be1] ai1] ch1] pad1]|r0]| |]; reflexivity.
  Qed.

  Lemma out_app_lt (a b : list chunk) n : (length (List.concat (a ++ b)) < n)%nat ->
    (length (List.concat a) < n)%nat /\ (length (List.concat b) < n)%nat.
  Proof. rewrite concat_app, app_length. lia. Qed.

  (** the simulation: the outer loop at [mode = None], the labelled inner loop at [mode = Some padLen] *)
  Lemma scan_sim : forall f,
    (forall bs be ai buf cs buf' tr x ch pad F,
       scan fmt args f None bs be ai buf = Ok (cs, buf') ->
       scan_inv fmt None bs be -> (ai <= length gargs)%nat ->
       buf_ok buf -> (length (List.concat cs) < FU)%nat -> (S (length fmt) - be < F)%nat ->
       exists y, fp_post FU w fmt gargs (gloop F step6 (mkw tr buf [x], N.of_nat be, N.of_nat bs, N.of_nat ai, ch, pad))
                 = GOk (mkw (pushed w cs tr) buf' [y], tt)) /\
    (forall bs be ai buf cs buf' tr x ch p G F,
       scan fmt args f (Some (sz p)) bs be ai buf = Ok (cs, buf') ->
       p < 2 ^ 64 -> scan_inv fmt (Some (sz p)) bs be -> (ai <= length gargs)%nat ->
       buf_ok buf -> (length (List.concat cs) < FU)%nat -> (S (length fmt) - be < G)%nat -> (S (length fmt) - be < F)%nat ->
       exists y, fp_post FU w fmt gargs
                   (inner_k F (gloop G (step3 (N.of_nat bs)) (mkw tr buf [x], N.of_nat be, N.of_nat ai, ch, p)))
                 = GOk (mkw (pushed w cs tr) buf' [y], tt)).
  Proof.
    induction f as [|f [IHn IHs]]; (split; [intros bs be ai buf cs buf' tr x ch pad F H | intros bs be ai buf cs buf' tr x ch p G F H]);
      try discriminate.
    - (* the head of the outer loop *)
      intros Hinv Hai Hb Hout HF. destruct F as [|F]; [lia|].
      destruct (nth_error fmt be) as [c|] eqn:Ec.
      2:{ (* the format is exhausted *)
          apply nth_error_None in Ec. rewrite scan_None_end in H by exact Ec.
          rewrite (gloop_break _ _ _ _ (step6_end _ be _ _ _ _ ltac:(destruct Hinv; lia))).
          eapply finish_sim; eauto; lia. }
      assert (Hlt : (be < length fmt)%nat) by (apply nth_error_Some; congruence).
      pose proof (fun m => scan_inv_step fmt None m bs be Hinv Hlt) as Hstep.
      destruct (N.eqb_spec c 37) as [->|Hc].
      + (* '%' *)
        rewrite scan_None_pct in H by exact Ec.
        apply bind_Ok in H as (blk & Ew & H). apply bind_Ok in H as ([cs1 buf1] & Es & H). injection H as <- <-.
        destruct (loop6_pct F tr buf x be bs ai ch pad blk Ec (proj1 Hinv) Ew) as [y1 ->].
        rewrite pushed_app. change 0%Z with (sz 0) in Es.
        apply (IHs _ _ _ _ _ _ _ _ _ _ FU F Es); [reflexivity|apply Hstep|exact Hai|exact Hb|apply (out_app_lt _ _ _ Hout)|lia|lia].
      + (* a literal byte *)
        rewrite (scan_None_lit _ _ _ _ _ _ _ c Ec Hc) in H. rewrite (gloop_next _ _ _ _ (step6_lit _ _ _ _ _ _ _ Ec Hc)).
        apply (IHn _ _ _ _ _ _ _ _ _ _ F H); [apply Hstep|exact Hai|exact Hb|exact Hout|lia].
    - (* the head of the labelled inner loop *)
      intros Hp Hinv Hai Hb Hout HG HF. destruct G as [|G]; [lia|].
      pose proof (scan_inv_leave _ _ _ _ Hinv) as Hleave. pose proof (proj2 Hinv) as Hbe. cbn in Hbe.
      destruct (nth_error fmt be) as [c|] eqn:Ec.
      2:{ (* the format ends inside a verb: leave the inner loop *)
          apply nth_error_None in Ec. rewrite scan_Some_end in H by exact Ec.
          rewrite (gloop_break _ _ _ _ (step3_end _ _ be _ _ _ ltac:(lia))), inner_k_break by exact Hbe.
          apply (IHn _ _ _ _ _ _ _ _ _ _ F H); [exact Hleave|exact Hai|exact Hb|exact Hout|lia]. }
      assert (Hlt : (be < length fmt)%nat) by (apply nth_error_Some; congruence).
      pose proof (fun m => scan_inv_step fmt _ m bs be Hinv Hlt) as Hstep.
      destruct (N.eqb_spec c 37) as [->|Hc].
      + (* "%%" *)
        rewrite scan_Some_pct in H by exact Ec. apply bind_Ok in H as ([cs1 buf1] & Es & H). injection H as <- <-.
        rewrite (gloop_break _ _ _ _ (step3_pct _ _ _ _ _ _ _ _ Ec)), inner_k_break by exact Hbe.
        destruct (IHn _ _ _ _ _ _ (ev w [37] :: tr) 37 37 p F Es) as [y Hy];
          [exact Hleave|exact Hai|exact Hb|apply (out_app_lt [_] _ _ Hout)|lia|].
        exists y. rewrite pushed_cons. exact Hy.
      + destruct (is_digit c) eqn:Ed.
        * (* a width digit *)
          rewrite (scan_Some_digit _ _ _ _ _ _ _ _ c Ec Ed) in H.
          rewrite (gloop_next _ _ _ _ (step3_digit _ _ _ _ _ _ _ Ec Ed)).
          destruct (pad_digit p c Hp) as [Hp' Hpz]. cbv zeta in Hp', Hpz. rewrite <- Hpz in H.
          apply (IHs _ _ _ _ _ _ _ _ _ _ G F H); [exact Hp'|apply Hstep|exact Hai|exact Hb|exact Hout|lia|lia].
        * destruct (is_verb c) eqn:Ev.
          -- (* a verb *)
             rewrite (scan_Some_verb _ _ _ _ _ _ _ _ c Ec Ev), nth_error_map in H.
             destruct (nth_error gargs ai) as [g|] eqn:Eg; cbn [option_map] in H.
             ++ assert (Hai' : (ai < length gargs)%nat) by (apply nth_error_Some; congruence).
                apply bind_Ok in H as (o & Eo & H). apply bind_Ok in H as ([cs1 buf1] & Es & H). injection H as <- <-.
                destruct (out_app_lt _ _ _ Hout) as [Ho1 Ho2].
                assert (Hg : gany_wf g) by (eapply Forall_forall; [exact Hwf|eapply nth_error_In; exact Eg]).
                assert (Hs : str_ok g) by (eapply Forall_forall; [exact Hso|eapply nth_error_In; exact Eg]).
                destruct (verb_sim FU w c tr buf x g p o Hb Hg Hs Hp HF34 Eo Ho1) as [y1 [V Hb1]].
                pose proof (step3_verb (N.of_nat bs) (mkw tr buf [x]) be ai ch p c g Ec Ev Eg) as St. rewrite V in St.
                rewrite (gloop_break _ _ _ _ St), inner_k_break by exact Hbe.
                destruct (IHn _ _ _ _ _ _ (pushed w (fst o) tr) y1 c p F Es) as [y Hy];
                  [exact Hleave|exact Hai'|exact Hb1|exact Ho2|lia|].
                exists y. rewrite pushed_app. exact Hy.
             ++ assert (Hai' : (length gargs <= ai)%nat) by (apply nth_error_None; exact Eg).
                apply bind_Ok in H as ([cs1 buf1] & Es & H). injection H as <- <-.
                rewrite (gloop_break _ _ _ _ (step3_missing _ _ _ _ _ ai _ _ _ Ec Ev ltac:(lia))), inner_k_break by exact Hbe.
                destruct (IHn _ _ _ _ _ _ (ev w kfmt_errMissingArg :: tr) x c p F Es) as [y Hy];
                  [exact Hleave|exact Hai|exact Hb|apply (out_app_lt [_] _ _ Hout)|lia|].
                exists y. rewrite pushed_cons. exact Hy.
          -- (* neither: the no-verb marker, go on scanning *)
             rewrite (scan_Some_other _ _ _ _ _ _ _ _ c Ec Hc Ed Ev) in H.
             apply bind_Ok in H as ([cs1 buf1] & Es & H). injection H as <- <-.
             rewrite (gloop_next _ _ _ _ (step3_other _ _ _ _ _ _ _ _ _ Ec Hc Ed Ev)).
             destruct (IHs _ _ _ _ _ _ (ev w kfmt_errNoVerb :: tr) x c p G F Es) as [y Hy];
               [exact Hp|apply Hstep|exact Hai|exact Hb|apply (out_app_lt [_] _ _ Hout)|lia|lia|].
             exists y. rewrite pushed_cons. exact Hy.
  Qed.
End ScanSim.

(** ---- Fprintf ---- *)
Theorem fprintf_is_translation w tr buf x fmt gargs :
  length buf = N.to_nat kfmt_numFmtBufLen ->
  N.of_nat (length fmt) < 4611686018427387904 -> N.of_nat (length gargs) < 4611686018427387904 ->
  Forall gany_wf gargs -> Forall str_ok gargs ->
  exists cs buf',
    fprintf fmt (map of_gany gargs) buf = Ok (cs, buf') /\
    forall FU, (length fmt + length gargs + length (List.concat cs) + 34 < FU)%nat ->
      exists y,
        go_kfmt_Fprintf FU (mk_go_kfmt_world tr buf [x]) w fmt gargs
          = GOk (mk_go_kfmt_world (pushed w cs tr) buf' [y], tt).
Proof.
  intros Hb Hfl Hal Hwf Hso.
  destruct (fprintf_never_panics fmt (map of_gany gargs) buf Hb) as [[cs buf'] E].
  exists cs, buf'. split; [exact E|].
  intros FU HFU. unfold fprintf in E.
  assert (Hfl' : (length fmt < N.to_nat two62)%nat) by (unfold two62; lia).
  assert (Hal' : (length gargs < N.to_nat two62)%nat) by (unfold two62; lia).
  destruct (scan_sim FU w fmt gargs Hfl' Hal' ltac:(lia) ltac:(lia) ltac:(lia) Hwf Hso (S (S (length fmt)))) as [Sn _].
  destruct (Sn 0%nat 0%nat 0%nat buf cs buf' tr x 0 0 FU E) as [y Hy]; [split; [|left]; lia|lia|exact Hb|lia|lia|].
  exists y. rewrite fprintf_unfold. exact Hy.
Qed.

(** the bytes-only corollary: the concatenation of the bytes of the doWrite events is the model's output *)
Theorem fprintf_translation_bytes w tr buf x fmt gargs :
  length buf = N.to_nat kfmt_numFmtBufLen ->
  N.of_nat (length fmt) < 4611686018427387904 -> N.of_nat (length gargs) < 4611686018427387904 ->
  Forall gany_wf gargs -> Forall str_ok gargs ->
  exists out,
    written (fprintf fmt (map of_gany gargs) buf) = Ok out /\
    forall FU, (length fmt + length gargs + length out + 34 < FU)%nat ->
      exists tr' buf' y,
        go_kfmt_Fprintf FU (mk_go_kfmt_world tr buf [x]) w fmt gargs = GOk (mk_go_kfmt_world tr' buf' [y], tt) /\
        trace_bytes tr' = trace_bytes tr ++ out.
Proof.
  intros Hb Hfl Hal Hwf Hso.
  destruct (fprintf_is_translation w tr buf x fmt gargs Hb Hfl Hal Hwf Hso) as [cs [buf' [E T]]].
  exists (List.concat cs). split; [unfold written; rewrite E; reflexivity|].
  intros FU HFU. destruct (T FU HFU) as [y Hy].
  exists (pushed w cs tr), buf', y. split; [exact Hy|apply trace_bytes_pushed].
Qed.

(** ---- with C15_fprintf_exact: what the translated Fprintf writes for a well-formed format ---- *)
Lemma of_gany_in_range g : gany_wf g ->
  match of_gany g with AInt k v => in_range k v | _ => True end.
Proof.
  destruct g as [n|n|n|n|n|n|n|n|n|n|b|s|s|]; cbn [gany_wf of_gany]; intros H; try exact I;
    unfold in_range, sgn; cbn [signed bits];
    repeat match goal with
           | |- context [(2 ^ ?e)%Z] => let v := eval vm_compute in (2 ^ e)%Z in change (2 ^ e)%Z with v
           | |- context [2 ^ ?e] => let v := eval vm_compute in (2 ^ e) in change (2 ^ e) with v
           | H : context [2 ^ ?e] |- _ => let v := eval vm_compute in (2 ^ e) in change (2 ^ e) with v in H
           end;
    try match goal with |- context [?a <? ?b] => destruct (N.ltb_spec a b) end; cbn [Z.of_N]; lia.
Qed.

Theorem fprintf_trans_render w tr buf x ps gargs :
  length buf = N.to_nat kfmt_numFmtBufLen ->
  N.of_nat (length (encode ps)) < 4611686018427387904 -> N.of_nat (length gargs) < 4611686018427387904 ->
  Forall piece_wf ps -> Forall gany_wf gargs ->
  Forall (fun g => match g with GAStr s | GABytes s => glen s < 4611686018427387904 | _ => True end) gargs ->
  exists cs buf',
    fprintf (encode ps) (map of_gany gargs) buf = Ok (cs, buf') /\
    List.concat cs = render ps (map of_gany gargs) /\
    forall FU, (length (encode ps) + length gargs + length (render ps (map of_gany gargs)) + 34 < FU)%nat ->
      exists y,
        go_kfmt_Fprintf FU (mk_go_kfmt_world tr buf [x]) w (encode ps) gargs
          = GOk (mk_go_kfmt_world (pushed w cs tr) buf' [y], tt).
Proof.
  intros Hb Hfl Hal Hps Hwf Hstr.
  assert (Hso : Forall str_ok gargs).
  { apply Forall_forall. intros g Hg. pose proof (proj1 (Forall_forall _ _) Hstr g Hg) as S.
    destruct g; try exact I; cbn [str_ok]; lia. }
  assert (Hok : Forall arg_ok (map of_gany gargs)).
  { apply Forall_forall. intros a Ha. apply in_map_iff in Ha. destruct Ha as [g [<- Hg]].
    pose proof (proj1 (Forall_forall _ _) Hwf g Hg) as W. apply of_gany_in_range in W.
    pose proof (proj1 (Forall_forall _ _) Hstr g Hg) as S.
    destruct g; cbn [of_gany arg_ok] in *; try exact W; try exact I; unfold glen in S;
      change (2 ^ 62)%Z with 4611686018427387904%Z; lia. }
  destruct (fprintf_is_translation w tr buf x (encode ps) gargs Hb Hfl Hal Hwf Hso) as [cs [buf' [E T]]].
  pose proof (fprintf_exact_written ps (map of_gany gargs) buf Hps Hok Hb) as R.
  unfold written in R. rewrite E in R. cbn [bind fst] in R. injection R as R.
  exists cs, buf'. split; [exact E|]. split; [exact R|].
  intros FU HFU. apply T. rewrite R. exact HFU.
Qed.
