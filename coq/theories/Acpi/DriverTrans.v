(** The hand-written model of the ACPI driver (Acpi/Model.v: [validTable], [locateRSDT], ... - the functions the C14
    theorems are about) IS the Gallina translation that gen/gotrans regenerates from kernel/device/acpi/acpi.go on every
    run (Gen/Trans_acpi_driver.v; config gen/gotrans/acpi_driver.json, feature "acpi" of gen/gotrans/ext_acpi.go).

    The translation reads memory through an oracle [ld : bytes -> address -> option value]; [ld_of m] is the oracle of the
    model's firmware memory [m] (a partial map address -> byte): a little-endian read of consecutive bytes, [None] when a
    byte is missing - the translated code then reports GPanic where the model says [Fault a] / [PStray a].
    Struct fields are loads at the offsets the Go compiler gives (Gen/Consts_device_acpi.v).  The seams mapFn / unmapFn
    are calls recorded on the trace of the synthetic record [world]; what mapFn returns is an oracle on the trace. *)
From Coq Require Import NArith ZArith Lia List Bool String.
From Coq Require Import ZifyBool ZifyN ZifyNat.
From FF Require Import Lib.Word Lib.GoOps Lib.GoOpsExt Lib.GoOpsProofs Lib.GoStruct Gen.Consts_device_acpi Acpi.TransEnv Gen.Trans_acpi_driver.
From FF Require Import Acpi.Model Acpi.Spec Acpi.BytesProofs Acpi.ProbeProofs.
Import ListNotations.
Local Open Scope N_scope.

(** ---- the memory oracle of a firmware image ---- *)
Definition ld_of (m : mem) (n a : N) : option N :=
  match rdle m a (N.to_nat n) with Got v => Some v | Fault _ => None end.

Lemma gw8_w8 x : gw 8 x = w8 x.
Proof. reflexivity. Qed.

Lemma gw32_w32 x : gw 32 x = w32 x.
Proof. reflexivity. Qed.

Lemma gload1 m a : gload (ld_of m) 1 a = match m a with Some b => Some (w8 b) | None => None end.
Proof.
  unfold gload, ld_of. change (N.to_nat 1) with 1%nat. cbn [rdle].
  destruct (m a) as [b|]; [|reflexivity]. f_equal. change (8 * 1) with 8. rewrite gw8_w8. f_equal. lia.
Qed.

Lemma gload_rdle m : bytes_ok m -> forall n a,
  gload (ld_of m) n a = match rdle m a (N.to_nat n) with Got v => Some v | Fault _ => None end.
Proof.
  intros Hok n a. unfold gload, ld_of. destruct (rdle m a (N.to_nat n)) as [v|x] eqn:E; [|reflexivity].
  f_equal. unfold gw. apply N.mod_small. pose proof (rdle_lt m Hok _ _ _ E) as Hv.
  rewrite N2Nat.id, pow256 in Hv. exact Hv.
Qed.

(** ---- model loops ([iter_N]) against translated loops ([gloop]) ---- *)
Definition fin {G Rr : Type} (x : gres (gctl G Rr)) : option (gres (G + Rr)) :=
  match x with
  | GOk (GNext _) => None
  | GOk (GBreak g') => Some (GOk (inl g'))
  | GOk (GRet r) => Some (GOk (inr r))
  | GPanic => Some GPanic
  | GFuel => Some GFuel
  end.

Lemma gloop_fin {G Rr} (gstep : G -> gres (gctl G Rr)) g res f :
  fin (gstep g) = Some res -> gloop (S f) gstep g = res.
Proof.
  cbn [gloop]. destruct (gstep g) as [[g'|g'|r]| |]; cbn [fin]; intros H; inversion H; reflexivity.
Qed.

(** [n] iterations that all go on: [g j] is the state after [j] of them *)
Lemma gloop_nexts {G Rr} (gstep : G -> gres (gctl G Rr)) : forall n (g : nat -> G) g0 fu, g0 = g 0%nat ->
  (forall j, (j < n)%nat -> gstep (g j) = GOk (GNext (g (S j)))) ->
  gloop (n + fu) gstep g0 = gloop fu gstep (g n).
Proof.
  induction n as [|n IH]; intros g g0 fu -> H; [reflexivity|].
  cbn [Nat.add]. rewrite (gloop_next _ _ _ _ (H 0%nat ltac:(lia))).
  apply (IH (fun j => g (S j))); [reflexivity|]. intros j Hj. apply H. lia.
Qed.

Section Sim.
  Context {S E G Rr : Type} (step : S -> S + E) (gstep : G -> gres (gctl G Rr)).
  Variable Rel : N -> S -> G -> Prop.
  Variable Q : E -> gres (G + Rr) -> Prop.
  Variable n0 : N.
  Hypothesis Hstep : forall k s g, k < n0 -> Rel k s g ->
    match step s with
    | inl s' => exists g', gstep g = GOk (GNext g') /\ Rel (k + 1) s' g'
    | inr e => exists res, fin (gstep g) = Some res /\ Q e res
    end.

  Lemma iter_gloop : forall n k s g fuel, k + n <= n0 -> Rel k s g -> (N.to_nat n <= fuel)%nat ->
    match iter_N step n s with
    | inl s' => exists g', Rel (k + n) s' g' /\ gloop fuel gstep g = gloop (fuel - N.to_nat n) gstep g'
    | inr e => Q e (gloop fuel gstep g)
    end.
  Proof.
    induction n as [|n IH] using N.peano_ind; intros k s g fuel Hk HR Hf.
    - rewrite iter_N_0. exists g. split; [rewrite N.add_0_r; exact HR|]. f_equal. cbn. lia.
    - rewrite iter_N_succ. destruct fuel as [|fuel]; [lia|].
      pose proof (Hstep k s g ltac:(lia) HR) as Hs.
      destruct (step s) as [s'|e]; cbn [bindS].
      + destruct Hs as (g' & Hg & HR'). rewrite (gloop_next _ _ _ _ Hg).
        specialize (IH (k + 1) s' g' fuel ltac:(lia) HR' ltac:(lia)).
        destruct (iter_N step n s') as [s''|e].
        * destruct IH as (g'' & HR'' & Hl). exists g''. split.
          -- replace (k + N.succ n) with (k + 1 + n) by lia. exact HR''.
          -- rewrite Hl. f_equal. lia.
        * exact IH.
      + destruct Hs as (res & Hfin & HQ). rewrite (gloop_fin _ _ _ _ Hfin). exact HQ.
  Qed.
End Sim.

(** ---- validTable ---- *)
Theorem validTable_is_translation : forall (m : mem) (tr0 : list gcall) (ptr len : N) (fuel : nat),
  ptr < two64 -> len < two32 -> (N.to_nat len < fuel)%nat ->
  go_acpi_validTable fuel (mk_go_acpi_world tr0) ptr len (ld_of m) =
  match validTable m ptr len with
  | Got b => GOk (mk_go_acpi_world tr0, b)
  | Fault _ => GPanic
  end.
Proof.
  intros m tr0 ptr len fuel Hp Hl Hf. unfold go_acpi_validTable, validTable.
  set (w := mk_go_acpi_world tr0).
  match goal with |- context [gloop ?fu ?f ?i] => set (gstep := f) end.
  pose (Rel := fun (k : N) (s : N * N) (g : go_acpi_world * N * N) =>
                 g = (w, k, snd s) /\ fst s = w64 (ptr + k)).
  pose (Q := fun (_ : N) (r : gres (go_acpi_world * N * N + go_acpi_world * bool)) => r = GPanic).
  assert (Hstep : forall k s g, k < len -> Rel k s g ->
    match sum_step m s with
    | inl s' => exists g', gstep g = GOk (GNext g') /\ Rel (k + 1) s' g'
    | inr e => exists res, fin (gstep g) = Some res /\ Q e res
    end).
  { intros k [a s] g Hk [-> Ha]. cbn [fst snd] in *. unfold sum_step, gstep. cbv beta iota.
    destruct (N.ltb_spec k len) as [_|]; [|lia].
    assert (Ek : gw 64 k = k) by (apply gw64_small; unfold two64, two32 in *; lia).
    rewrite Ek. change (gw 64 (ptr + k)) with (w64 (ptr + k)). rewrite <- Ha, gload1.
    destruct (m a) as [b|].
    - eexists. split; [reflexivity|]. split.
      + cbn [snd]. f_equal; [f_equal|].
        * rewrite gw32_w32. apply w32_small. lia.
        * rewrite gw8_w8. unfold w8, two8. rewrite N.add_mod_idemp_r by discriminate. reflexivity.
      + cbn [fst]. rewrite Ha. apply w64_add_add.
    - eexists. split; [reflexivity|]. reflexivity. }
  pose proof (iter_gloop (sum_step m) gstep Rel Q len Hstep len 0 (ptr, 0) (w, gw 32 0, 0) fuel
                ltac:(lia) ltac:(split; [reflexivity|cbn [fst]; rewrite N.add_0_r, w64_small by exact Hp; reflexivity])
                ltac:(lia)) as H.
  destruct (iter_N (sum_step m) len (ptr, 0)) as [[a s]|e].
  - destruct H as (g' & [-> _] & ->). cbn [snd].
    destruct (fuel - N.to_nat len)%nat as [|f] eqn:Ef; [lia|].
    rewrite (gloop_fin gstep _ (GOk (inl (w, 0 + len, s)))).
    + reflexivity.
    + unfold gstep. destruct (N.ltb_spec (0 + len) len); [lia|]. reflexivity.
  - unfold Q in H. rewrite H. reflexivity.
Qed.

(** ---- locateRSDT: the translated loops in structured form ---- *)
Definition Rres : Type := (go_acpi_world * (N * bool * option string))%type.
Definition W (tr : list gcall) : go_acpi_world := mk_go_acpi_world tr.

(** [for i, b := range rsdpSignature { if rsdp.Signature[i] != b { continue checkNextBlock } }]
    (the labelled continue is `flag = true; break`, see gen/gotrans/ext_acpi.go) *)
Definition sig_gstep (ld : N -> N -> option N) (rsdp : N)
  : go_acpi_world * bool * N -> gres (gctl (go_acpi_world * bool * N) Rres) :=
  fun st => let '(v_world, flag, rng) := st in
  if rng <? glen acpi_rsdpSignature then
    match gidx acpi_rsdpSignature rng with None => GPanic | Some t1 =>
    match gfldidx ld 8 rsdp acpi_off_RSDP_Signature rng with None => GPanic | Some t2 =>
      if negb (t2 =? t1) then GOk (GBreak (v_world, true, rng))
      else GOk (GNext (v_world, flag, rng + 1)) end end
  else GOk (GBreak (v_world, flag, rng)).

(** [if !validTable(curPtr, len) { continue }; return the pointer field], the same for both revisions of the structure *)
Definition tail_gstep (fuel : nat) (ld : N -> N -> option N) (align : N) (w : go_acpi_world) (cur r r2 len off sz : N) (x : bool)
  : gres (gctl (go_acpi_world * N * N * N) Rres) :=
  match go_acpi_validTable fuel w cur len ld with
  | GPanic => GPanic | GFuel => GFuel
  | GOk (w, t) =>
    if negb t then GOk (GNext (w, gw 64 (cur + align), r, r2))
    else match gfld ld sz cur off with None => GPanic | Some p => GOk (GRet (w, (gw 64 p, x, None))) end
  end.

(** body of [for curPtr := rsdpLocationLow; curPtr < rsdpLocationHi; curPtr += rsdpAlignment] *)
Definition scan_gstep (fuel : nat) (ld : N -> N -> option N) (align hi : N)
  : go_acpi_world * N * N * N -> gres (gctl (go_acpi_world * N * N * N) Rres) :=
  fun st => let '(v_world, v_curPtr, v_rsdp, v_rsdp2) := st in
  if v_curPtr <? hi then
    let v_rsdp := v_curPtr in
    match gloop fuel (sig_gstep ld v_rsdp) (v_world, false, 0) with
    | GPanic => GPanic | GFuel => GFuel
    | GOk (inr r) => GOk (GRet r)
    | GOk (inl st) => let '(v_world, flag, _) := st in
      if flag then GOk (GNext (v_world, gw 64 (v_curPtr + align), v_rsdp, v_rsdp2))
      else
      match gfld ld 1 v_rsdp acpi_off_RSDP_Revision with None => GPanic | Some t3 =>
      if t3 =? acpi_acpiRev1
      then tail_gstep fuel ld align v_world v_curPtr v_rsdp v_rsdp2 (gw 32 acpi_sizeof_RSDPDescriptor) acpi_off_RSDP_RSDTAddr 4 false
      else tail_gstep fuel ld align v_world v_curPtr v_rsdp v_curPtr acpi_extRSDPLength acpi_off_ExtRSDP_XSDTAddr 8 true
      end
    end
  else GOk (GBreak (v_world, v_curPtr, v_rsdp, v_rsdp2)).

(** body of the loop that identity-maps the search window page by page *)
Definition map_gstep (hi : N) (o_mapFn : list gcall -> option string)
  : go_acpi_world * N -> gres (gctl (go_acpi_world * N) Rres) :=
  fun st => let '(v_world, v_curPage) := st in
  if v_curPage <=? go_mm_PageFromAddress hi then
    let v_world := set_f_world_trace v_world
      (GCall "mapFn" [GNum v_curPage; GNum (gw 64 v_curPage); GNum acpi_vmm_FlagPresent] :: f_world_trace v_world) in
    let v_err := o_mapFn (f_world_trace v_world) in
    if negb (gerr_eqb v_err None) then GOk (GRet (v_world, (gw 64 0, false, v_err)))
    else GOk (GNext (v_world, gw 64 (v_curPage + 1)))
  else GOk (GBreak (v_world, v_curPage)).

(** body of the deferred loop that unmaps the window again *)
Definition unmap_gstep (hi : N) : go_acpi_world * N -> gres (gctl (go_acpi_world * N) (go_acpi_world * unit)) :=
  fun st => let '(v_world, v_curPage) := st in
  if v_curPage <=? go_mm_PageFromAddress hi then
    let v_world := set_f_world_trace v_world (GCall "unmapFn" [GNum v_curPage] :: f_world_trace v_world) in
    GOk (GNext (v_world, gw 64 (v_curPage + 1)))
  else GOk (GBreak (v_world, v_curPage)).

Definition body_form (fuel : nat) (w : go_acpi_world) (ld : N -> N -> option N) (align hi low : N)
  (o_mapFn : list gcall -> option string) : gres Rres :=
  match gloop fuel (map_gstep hi o_mapFn) (w, go_mm_PageFromAddress low) with
  | GPanic => GPanic | GFuel => GFuel
  | GOk (inr r) => GOk r
  | GOk (inl st) => let '(v_world, _) := st in
    match gloop fuel (scan_gstep fuel ld align hi) (v_world, low, 0, 0) with
    | GPanic => GPanic | GFuel => GFuel
    | GOk (inr r) => GOk r
    | GOk (inl st) => let '(v_world, _, _, _) := st in
      GOk (v_world, (gw 64 0, false, Some "errMissingRSDP"%string))
    end
  end.

(** the regenerated functions ARE these forms (checked by conversion: any change of the generated text that is not
    a renaming breaks this lemma) *)
Lemma body_unfold fuel w ld align hi low o :
  go_acpi_locateRSDT_body fuel w ld align hi low o = body_form fuel w ld align hi low o.
Proof. reflexivity. Qed.

Lemma deferred_unfold fuel w hi low :
  go_acpi_locateRSDT_deferred fuel w hi low =
  match gloop fuel (unmap_gstep hi) (w, go_mm_PageFromAddress low) with
  | GPanic => GPanic | GFuel => GFuel
  | GOk (inr r) => GOk r
  | GOk (inl st) => let '(v_world, _) := st in GOk (v_world, tt)
  end.
Proof. reflexivity. Qed.

Lemma locate_unfold fuel w ld align hi low o :
  go_acpi_locateRSDT fuel w ld align hi low o =
  match go_acpi_locateRSDT_body fuel w ld align hi low o with
  | GPanic => GPanic | GFuel => GFuel
  | GOk (w1, (a, b, c)) =>
    match go_acpi_locateRSDT_deferred fuel w1 hi low with
    | GPanic => GPanic | GFuel => GFuel
    | GOk (w2, _) => GOk (w2, (a, b, c))
    end
  end.
Proof. reflexivity. Qed.

(** ---- the signature loop = [sig_match] ---- *)
Lemma skipn_cons_nth {A} : forall (l : list A) j c r, skipn j l = c :: r -> nth_error l j = Some c /\ skipn (S j) l = r.
Proof.
  induction l as [|x l IH]; intros j c r H.
  - destruct j; discriminate.
  - destruct j as [|j]; cbn [skipn nth_error] in *.
    + inversion H; subst. split; reflexivity.
    + apply IH. exact H.
Qed.

Lemma w8_byte m : bytes_ok m -> forall a b, m a = Some b -> w8 b = b.
Proof. intros Hok a b H. unfold w8, two8. apply N.mod_small. exact (Hok a b H). Qed.

Lemma sig_loop m w cur : bytes_ok m ->
  forall rest j flag fuel, skipn j acpi_rsdpSignature = rest -> (j + List.length rest = 8)%nat -> (List.length rest < fuel)%nat ->
  match sig_match m (w64 (w64 (cur + acpi_off_RSDP_Signature) + N.of_nat j)) rest with
  | Got true => gloop fuel (sig_gstep (ld_of m) cur) (w, flag, N.of_nat j) = GOk (inl (w, flag, 8))
  | Got false => exists j', gloop fuel (sig_gstep (ld_of m) cur) (w, flag, N.of_nat j) = GOk (inl (w, true, j'))
  | Fault _ => gloop fuel (sig_gstep (ld_of m) cur) (w, flag, N.of_nat j) = GPanic
  end.
Proof.
  intros Hok rest. induction rest as [|c rest IH]; intros j flag fuel Hs Hj Hf.
  - cbn [sig_match]. destruct fuel as [|f]; [cbn in Hf; lia|].
    cbn [List.length] in Hj. replace j with 8%nat by lia.
    apply gloop_fin. reflexivity.
  - cbn [sig_match List.length] in *. destruct fuel as [|f]; [lia|].
    destruct (skipn_cons_nth _ _ _ _ Hs) as [Hn Hs'].
    set (a := w64 (w64 (cur + acpi_off_RSDP_Signature) + N.of_nat j)).
    assert (Hstep : sig_gstep (ld_of m) cur (w, flag, N.of_nat j) =
              match m a with
              | None => GPanic
              | Some b => if negb (w8 b =? c) then GOk (GBreak (w, true, N.of_nat j))
                          else GOk (GNext (w, flag, N.of_nat j + 1))
              end).
    { unfold sig_gstep. change (glen acpi_rsdpSignature) with 8.
      destruct (N.ltb_spec (N.of_nat j) 8) as [_|]; [|lia].
      unfold gidx. rewrite Nat2N.id, Hn. unfold gfldidx, gisneg.
      destruct (N.leb_spec (2 ^ (64 - 1)) (N.of_nat j)) as [Hbig|_].
      { exfalso. change (2 ^ (64 - 1)) with 9223372036854775808 in Hbig. lia. }
      destruct (N.ltb_spec (N.of_nat j) 8) as [_|]; [|lia].
      change (gw 64 (gw 64 (cur + acpi_off_RSDP_Signature) + N.of_nat j)) with a.
      rewrite gload1. destruct (m a); reflexivity. }
    assert (Ha' : w64 (a + 1) = w64 (w64 (cur + acpi_off_RSDP_Signature) + N.of_nat (S j))).
    { unfold a. rewrite w64_add_add. f_equal. lia. }
    destruct (m a) as [b|] eqn:Hm.
    + rewrite (w8_byte m Hok a b Hm) in Hstep.
      destruct (N.eqb_spec b c) as [->|Hne]; cbn [negb] in Hstep.
      * rewrite (gloop_next _ _ _ _ Hstep). rewrite Ha'.
        replace (N.of_nat j + 1) with (N.of_nat (S j)) by lia.
        apply IH; [exact Hs'|lia|lia].
      * exists (N.of_nat j). apply gloop_fin. rewrite Hstep. reflexivity.
    + apply gloop_fin. rewrite Hstep. reflexivity.
Qed.

(** ---- one slot of the scan = [check_slot] ---- *)
Lemma gfld_rdle m : bytes_ok m -> forall n p off,
  gfld (ld_of m) n p off = match rdle m (w64 (p + off)) (N.to_nat n) with Got v => Some v | Fault _ => None end.
Proof. intros Hok n p off. unfold gfld. rewrite gload_rdle by exact Hok. reflexivity. Qed.

Lemma gfld1 m p off : gfld (ld_of m) 1 p off = match m (w64 (p + off)) with Some b => Some (w8 b) | None => None end.
Proof. unfold gfld. rewrite gload1. reflexivity. Qed.

Definition slot_fuel : N := 8 + acpi_sizeof_RSDPDescriptor + acpi_extRSDPLength.

Lemma tail_is_translation m tr cur r r2 align fuel len off sz x : bytes_ok m -> cur < two64 -> len < two32 ->
  (N.to_nat len < fuel)%nat -> (N.to_nat sz <= 8)%nat ->
  match slot_tail m cur len off (N.to_nat sz) x with
  | SAccept p x' => tail_gstep fuel (ld_of m) align (W tr) cur r r2 len off sz x = GOk (GRet (W tr, (p, x', None)))
  | SReject => tail_gstep fuel (ld_of m) align (W tr) cur r r2 len off sz x = GOk (GNext (W tr, w64 (cur + align), r, r2))
  | SStray _ => tail_gstep fuel (ld_of m) align (W tr) cur r r2 len off sz x = GPanic
  end.
Proof.
  intros Hok Hc Hl Hf Hsz. unfold tail_gstep, slot_tail, W. rewrite validTable_is_translation by assumption.
  destruct (validTable m cur len) as [[|]|e]; cbn [negb]; [|rewrite gw64; reflexivity|reflexivity].
  rewrite gfld_rdle by exact Hok.
  destruct (rdle m (w64 (cur + off)) (N.to_nat sz)) as [p|e] eqn:Hp; [|reflexivity].
  rewrite gw64_small by (eapply rdle_lt64; eassumption). reflexivity.
Qed.

Lemma slot_is_translation m tr cur r r2 align hi fuel : bytes_ok m -> cur < two64 -> cur < hi ->
  (N.to_nat slot_fuel < fuel)%nat ->
  match check_slot m cur with
  | SAccept p x => scan_gstep fuel (ld_of m) align hi (W tr, cur, r, r2) = GOk (GRet (W tr, (p, x, None)))
  | SReject => exists r' r2', scan_gstep fuel (ld_of m) align hi (W tr, cur, r, r2) =
                              GOk (GNext (W tr, w64 (cur + align), r', r2'))
  | SStray _ => scan_gstep fuel (ld_of m) align hi (W tr, cur, r, r2) = GPanic
  end.
Proof.
  intros Hok Hc Hlt Hf. change (N.to_nat slot_fuel) with 64%nat in Hf.   (* 8 + 20 + 36 *)
  assert (Hf8 : (8 < fuel)%nat) by lia.
  unfold scan_gstep. rewrite check_slot_tail. cbv beta iota zeta.
  destruct (N.ltb_spec cur hi) as [_|]; [|lia].
  pose proof (sig_loop m (W tr) cur Hok acpi_rsdpSignature 0 false fuel eq_refl eq_refl Hf8) as Hsig.
  change (N.of_nat 0) with 0 in Hsig.
  replace (w64 (w64 (cur + acpi_off_RSDP_Signature) + 0)) with (w64 (cur + 0)) in Hsig
    by (rewrite w64_add_add; reflexivity).
  change acpi_rsdpSignature with rsdp_signature in Hsig.
  destruct (sig_match m (w64 (cur + 0)) rsdp_signature) as [[|]|e].
  2:{ destruct Hsig as (j' & ->). cbv beta iota. eexists _, _. reflexivity. }
  2:{ rewrite Hsig. reflexivity. }
  rewrite Hsig. cbv beta iota. rewrite gfld1. unfold rd8. change acpi_off_RSDP_Revision with 15.
  destruct (m (w64 (cur + 15))) as [rev|] eqn:Hrev; [|reflexivity].
  rewrite (w8_byte m Hok _ _ Hrev). change acpi_acpiRev1 with 0.
  destruct (rev =? 0);
    [pose proof (tail_is_translation m tr cur cur r2 align fuel 20 16 4 false Hok Hc eq_refl ltac:(lia) ltac:(lia)) as Ht
    |pose proof (tail_is_translation m tr cur cur cur align fuel 36 24 8 true Hok Hc eq_refl ltac:(lia) ltac:(lia)) as Ht];
    (destruct (slot_tail m cur _ _ _ _); [exact Ht|eexists _, _; exact Ht|exact Ht]).
Qed.

(** ---- the scan loop = [scan] ---- *)
Lemma scan_is_translation m tr low hi align fuel : bytes_ok m -> low < two64 -> 0 < align -> hi + align <= two64 ->
  (N.to_nat ((hi - low) / align + 2) <= fuel)%nat -> (N.to_nat slot_fuel < fuel)%nat ->
  match scan m low hi align with
  | PFound p x => gloop fuel (scan_gstep fuel (ld_of m) align hi) (W tr, low, 0, 0) = GOk (inr (W tr, (p, x, None)))
  | PMissing => exists c r r2, gloop fuel (scan_gstep fuel (ld_of m) align hi) (W tr, low, 0, 0) = GOk (inl (W tr, c, r, r2))
  | PStray _ => gloop fuel (scan_gstep fuel (ld_of m) align hi) (W tr, low, 0, 0) = GPanic
  | PMapErr | PFuel => False
  end.
Proof.
  intros Hok Hlow Hal Hhi Hf Hsf.
  set (gstep := scan_gstep fuel (ld_of m) align hi).
  pose (Rel := fun (_ : N) (cur : N) (g : go_acpi_world * N * N * N) =>
                 cur < two64 /\ exists r r2, g = (W tr, cur, r, r2)).
  pose (Q := fun (e : probe_res) (res : gres (go_acpi_world * N * N * N + Rres)) =>
               match e with
               | PFound p x => res = GOk (inr (W tr, (p, x, None)))
               | PMissing => exists c r r2, res = GOk (inl (W tr, c, r, r2))
               | PStray _ => res = GPanic
               | PMapErr | PFuel => False
               end).
  set (n := (hi - low) / align + 2) in *.
  assert (Hstep : forall k s g, k < n -> Rel k s g ->
    match scan_step m hi align s with
    | inl s' => exists g', gstep g = GOk (GNext g') /\ Rel (k + 1) s' g'
    | inr e => exists res, fin (gstep g) = Some res /\ Q e res
    end).
  { intros k cur g _ (Hc & r & r2 & ->). unfold scan_step.
    destruct (N.ltb_spec cur hi) as [Hlt|Hge].
    - pose proof (slot_is_translation m tr cur r r2 align hi fuel Hok Hc Hlt Hsf) as Hs. fold gstep in Hs.
      destruct (check_slot m cur) as [p x| |a].
      + exists (GOk (inr (W tr, (p, x, None)))). rewrite Hs. split; reflexivity.
      + destruct Hs as (r' & r2' & ->). eexists. split; [reflexivity|]. split; [apply w64_lt|]. eexists _, _. reflexivity.
      + exists GPanic. rewrite Hs. split; reflexivity.
    - eexists. split.
      + unfold gstep, scan_gstep. cbv beta iota. destruct (N.ltb_spec cur hi) as [|_]; [lia|]. reflexivity.
      + cbn. eexists _, _, _. reflexivity. }
  pose proof (iter_gloop (scan_step m hi align) gstep Rel Q n Hstep n 0 low (W tr, low, 0, 0) fuel
                ltac:(lia) ltac:(split; [exact Hlow|eexists _, _; reflexivity]) Hf) as H.
  unfold scan. fold n.
  destruct (scan_total m hi align Hal Hhi n low) as (r & Hi & _).
  { unfold n. lia. }
  { unfold n. pose proof (N.div_mod (hi - low) align ltac:(lia)) as Hdm.
    pose proof (N.mod_lt (hi - low) align ltac:(lia)) as Hml.
    set (q := (hi - low) / align) in *. set (r0 := (hi - low) mod align) in *. clearbody q r0. nia. }
  rewrite Hi in H |- *. exact H.
Qed.

(** ---- the page loops ---- *)
Definition ev_mapfn (p : N) : gcall := GCall "mapFn" [GNum p; GNum p; GNum acpi_vmm_FlagPresent].
Definition ev_unmapfn (p : N) : gcall := GCall "unmapFn" [GNum p].

(** the events for pages first+i .. first+i+n-1, most recent first *)
Definition evs (mk : N -> gcall) (first : N) (i n : nat) : list gcall :=
  rev (map (fun j => mk (first + N.of_nat j)) (seq i n)).

Lemma evs_snoc mk first n : evs mk first 0 (S n) = mk (first + N.of_nat n) :: evs mk first 0 n.
Proof. unfold evs. rewrite seq_S, map_app, rev_app_distr. reflexivity. Qed.

Lemma evs_length mk first i n : List.length (evs mk first i n) = n.
Proof. unfold evs. rewrite rev_length, map_length, seq_length. reflexivity. Qed.

(** a mapFn that fails at its call number [fail] (0-based), counted from a trace of length [base] *)
Definition o_map (fail : option N) (base : nat) (tr : list gcall) : option string :=
  match fail with
  | Some k => if N.of_nat (List.length tr) =? N.of_nat base + k + 1 then Some "errMap"%string else None
  | None => None
  end.

Definition npages_of (low hi : N) : N :=
  if page_of low <=? page_of hi then page_of hi - page_of low + 1 else 0.

Lemma page_of_trans a : a < two64 -> go_mm_PageFromAddress a = page_of a.
Proof.
  intros Ha. unfold go_mm_PageFromAddress, page_of, PageSize, PageShift.
  assert (E: gw 64 (gsub 64 acpi_mm_PageSize 1) = acpi_mm_PageSize - 1) by reflexivity.
  rewrite E, land_gnot64 by (try exact Ha; reflexivity).
  assert (H: N.shiftr (N.ldiff a (acpi_mm_PageSize - 1)) acpi_mm_PageShift < two64).
  { rewrite N.shiftr_div_pow2.
    assert (H1: N.ldiff a (acpi_mm_PageSize - 1) <= a).
    { change (acpi_mm_PageSize - 1) with (2 ^ 12 - 1). fold (andnot a (2 ^ 12 - 1)). rewrite andnot_pow2. lia. }
    change (2 ^ acpi_mm_PageShift) with 4096. lia. }
  rewrite gw64_small by exact H. unfold andnot. reflexivity.
Qed.

Lemma page_of_small a : a < two64 -> page_of a < 4503599627370496.
Proof.
  intros Ha. unfold page_of, PageSize, PageShift. rewrite N.shiftr_div_pow2.
  change (acpi_mm_PageSize - 1) with (2 ^ 12 - 1). rewrite andnot_pow2.
  change (2 ^ acpi_mm_PageShift) with 4096. change (2 ^ 12) with 4096. unfold two64 in Ha. lia.
Qed.

Lemma npages_cases low hi :
  (page_of low <= page_of hi /\ npages_of low hi = page_of hi - page_of low + 1) \/
  (page_of hi < page_of low /\ npages_of low hi = 0).
Proof. unfold npages_of. destruct (N.leb_spec (page_of low) (page_of hi)); [left|right]; split; auto. Qed.

Lemma in_pages low hi j : (page_of low + j <=? page_of hi) = (j <? npages_of low hi).
Proof.
  destruct (N.leb_spec (page_of low + j) (page_of hi)); destruct (N.ltb_spec j (npages_of low hi)); try reflexivity;
    destruct (npages_cases low hi) as [[? E]|[? E]]; rewrite E in *; lia.
Qed.

Lemma next_page low hi j : hi < two64 -> j < npages_of low hi -> gw 64 (page_of low + j + 1) = page_of low + (j + 1).
Proof.
  intros Hhi Hj. pose proof (page_of_small hi Hhi). rewrite gw64_small; [lia|].
  destruct (npages_cases low hi) as [[H1 H2]|[H1 H2]]; rewrite H2 in Hj; unfold two64; lia.
Qed.

(** the loop state after [j] pages: their events on the trace, the next page *)
Definition pages (mk : N -> gcall) (low : N) (tr : list gcall) (j : nat) : go_acpi_world * N :=
  (W (evs mk (page_of low) 0 j ++ tr), page_of low + N.of_nat j).

Lemma pages_0 mk low tr : (W tr, page_of low) = pages mk low tr 0.
Proof. unfold pages. cbn. rewrite N.add_0_r. reflexivity. Qed.

Lemma unmap_loop low hi tr fu : hi < two64 -> (N.to_nat (npages_of low hi) < fu)%nat ->
  gloop fu (unmap_gstep hi) (W tr, page_of low) = GOk (inl (pages ev_unmapfn low tr (N.to_nat (npages_of low hi)))).
Proof.
  intros Hhi Hfu.
  replace fu with (N.to_nat (npages_of low hi) + S (fu - N.to_nat (npages_of low hi) - 1))%nat by lia.
  rewrite (gloop_nexts _ _ (pages ev_unmapfn low tr) _ _ (pages_0 _ _ _)).
  - apply gloop_fin. unfold unmap_gstep, pages. rewrite page_of_trans, in_pages, N2Nat.id, N.ltb_irrefl by exact Hhi. reflexivity.
  - intros j Hj. unfold unmap_gstep, pages. rewrite page_of_trans, in_pages by exact Hhi.
    destruct (N.ltb_spec (N.of_nat j) (npages_of low hi)); [|lia].
    cbn [set_f_world_trace f_world_trace W]. rewrite evs_snoc, (next_page low hi) by assumption.
    do 3 f_equal. lia.
Qed.

Lemma o_map_pages pfail tr0 low j :
  o_map pfail (List.length tr0) (evs ev_mapfn (page_of low) 0 (S j) ++ tr0) =
  match pfail with Some k => if N.of_nat j =? k then Some "errMap"%string else None | None => None end.
Proof.
  unfold o_map. destruct pfail as [k|]; [|reflexivity]. rewrite app_length, evs_length.
  destruct (N.eqb_spec (N.of_nat j) k); destruct (N.eqb_spec (N.of_nat (S j + List.length tr0)) (N.of_nat (List.length tr0) + k + 1));
    try reflexivity; lia.
Qed.

Lemma map_page_step low hi o tr j : hi < two64 -> N.of_nat j < npages_of low hi ->
  map_gstep hi o (pages ev_mapfn low tr j) =
  let tr' := evs ev_mapfn (page_of low) 0 (S j) ++ tr in
  if negb (gerr_eqb (o tr') None) then GOk (GRet (W tr', (0, false, o tr'))) else GOk (GNext (pages ev_mapfn low tr (S j))).
Proof.
  intros Hhi Hj. pose proof (page_of_small hi Hhi) as Hsm. unfold map_gstep, pages.
  rewrite page_of_trans, in_pages by exact Hhi. destruct (N.ltb_spec (N.of_nat j) (npages_of low hi)); [|lia].
  cbn [set_f_world_trace f_world_trace W]. rewrite evs_snoc, (next_page low hi) by assumption.
  rewrite gw64_small.
  - replace (N.of_nat (S j)) with (N.of_nat j + 1) by lia. reflexivity.
  - destruct (npages_cases low hi) as [[? E]|[? E]]; rewrite E in *; unfold two64; lia.
Qed.

Lemma map_loop low hi pfail tr0 fu : hi < two64 -> (N.to_nat (npages_of low hi) < fu)%nat ->
  gloop fu (map_gstep hi (o_map pfail (List.length tr0))) (W tr0, page_of low) =
  match pfail with
  | Some k => if k <? npages_of low hi
              then GOk (inr (W (evs ev_mapfn (page_of low) 0 (N.to_nat (k + 1)) ++ tr0), (0, false, Some "errMap"%string)))
              else GOk (inl (pages ev_mapfn low tr0 (N.to_nat (npages_of low hi))))
  | None => GOk (inl (pages ev_mapfn low tr0 (N.to_nat (npages_of low hi))))
  end.
Proof.
  intros Hhi Hfu. set (np := npages_of low hi) in *. set (gstep := map_gstep hi (o_map pfail (List.length tr0))).
  assert (Hgo : forall n f, (n <= N.to_nat np)%nat -> (forall j, (j < n)%nat -> pfail <> Some (N.of_nat j)) ->
            gloop (n + f) gstep (W tr0, page_of low) = gloop f gstep (pages ev_mapfn low tr0 n)).
  { intros n f Hn Hnf. apply (gloop_nexts _ _ (pages ev_mapfn low tr0) _ _ (pages_0 _ _ _)). intros j Hj.
    unfold gstep. rewrite map_page_step by (exact Hhi || (fold np; lia)). cbv zeta. rewrite o_map_pages.
    destruct pfail as [k|]; [|reflexivity].
    destruct (N.eqb_spec (N.of_nat j) k) as [<-|]; [destruct (Hnf j Hj eq_refl)|reflexivity]. }
  assert (Hall : (forall j, (j < N.to_nat np)%nat -> pfail <> Some (N.of_nat j)) ->
            gloop fu gstep (W tr0, page_of low) = GOk (inl (pages ev_mapfn low tr0 (N.to_nat np)))).
  { intros Hnf. replace fu with (N.to_nat np + S (fu - N.to_nat np - 1))%nat by lia. rewrite Hgo by (lia || exact Hnf).
    apply gloop_fin. unfold gstep, map_gstep, pages.
    rewrite page_of_trans, in_pages, N2Nat.id by exact Hhi. fold np. rewrite N.ltb_irrefl. reflexivity. }
  destruct pfail as [k|]; [destruct (N.ltb_spec k np) as [Hk|Hk]|].
  - replace fu with (N.to_nat k + S (fu - N.to_nat k - 1))%nat by lia.
    rewrite Hgo by (lia || (intros j Hj E; injection E; lia)).
    apply gloop_fin. unfold gstep. rewrite map_page_step by (exact Hhi || (fold np; lia)). cbv zeta.
    rewrite o_map_pages, N2Nat.id, N.eqb_refl. replace (N.to_nat (k + 1)) with (S (N.to_nat k)) by lia. reflexivity.
  - apply Hall. intros j Hj E. injection E. lia.
  - apply Hall. intros j Hj E. discriminate E.
Qed.

(** ---- locateRSDT ---- *)
Definition locate_fuel (low hi align : N) : N := npages_of low hi + (hi - low) / align + slot_fuel + 2.

Definition locate_result (tr0 : list gcall) (low : N) (r : probe_res * N * N) : gres Rres :=
  let '(pr, nmap, nunmap) := r in
  let tr := evs ev_unmapfn (page_of low) 0 (N.to_nat nunmap) ++ evs ev_mapfn (page_of low) 0 (N.to_nat nmap) ++ tr0 in
  match pr with
  | PFound root x => GOk (W tr, (root, x, None))
  | PMissing => GOk (W tr, (0, false, Some "errMissingRSDP"%string))
  | PMapErr => GOk (W tr, (0, false, Some "errMap"%string))
  | PStray _ => GPanic
  | PFuel => GFuel
  end.

Lemma deferred_is_translation low hi tr fuel : low < two64 -> hi < two64 ->
  (N.to_nat (npages_of low hi) < fuel)%nat ->
  go_acpi_locateRSDT_deferred fuel (W tr) hi low =
  GOk (W (evs ev_unmapfn (page_of low) 0 (N.to_nat (npages_of low hi)) ++ tr), tt).
Proof.
  intros Hlow Hhi Hf. rewrite deferred_unfold, page_of_trans, unmap_loop by assumption. reflexivity.
Qed.

Theorem locateRSDT_is_translation : forall (m : mem) (low hi align : N) (pfail : option N) (tr0 : list gcall) (fuel : nat),
  bytes_ok m -> low < two64 -> 0 < align -> hi + align <= two64 ->
  (N.to_nat (locate_fuel low hi align) < fuel)%nat ->
  go_acpi_locateRSDT fuel (W tr0) (ld_of m) align hi low (o_map pfail (List.length tr0)) =
  locate_result tr0 low (locateRSDT m low hi align pfail).
Proof.
  intros m low hi align pfail tr0 fuel Hok Hlow Hal Hhi Hf. unfold locate_fuel in Hf.
  assert (Hhi' : hi < two64) by lia.
  assert (Hf3 : (N.to_nat (npages_of low hi) < fuel)%nat /\ (N.to_nat ((hi - low) / align + 2) <= fuel)%nat /\
                (N.to_nat slot_fuel < fuel)%nat).
  { (* the three summands as plain variables: [lia] would otherwise open the division and the page arithmetic *)
    revert Hf. generalize (npages_of low hi) ((hi - low) / align) slot_fuel. intros a b c Hf. lia. }
  destruct Hf3 as (Hf_np & Hf_scan & Hf_slot). clear Hf.
  set (np := npages_of low hi) in *.
  assert (Hdef : forall tr, go_acpi_locateRSDT_deferred fuel (W tr) hi low =
                            GOk (W (evs ev_unmapfn (page_of low) 0 (N.to_nat np) ++ tr), tt)).
  { intros tr. apply deferred_is_translation; [exact Hlow|exact Hhi'|exact Hf_np]. }
  rewrite locate_unfold, body_unfold. unfold body_form.
  rewrite page_of_trans, map_loop by assumption. fold np. unfold locateRSDT. fold (npages_of low hi). fold np.
  assert (Hscan :
    match
      match gloop fuel (scan_gstep fuel (ld_of m) align hi) (W (evs ev_mapfn (page_of low) 0 (N.to_nat np) ++ tr0), low, 0, 0) with
      | GPanic => GPanic | GFuel => GFuel
      | GOk (inr r) => GOk r
      | GOk (inl st) => let '(v_world, _, _, _) := st in GOk (v_world, (gw 64 0, false, Some "errMissingRSDP"%string))
      end
    with
    | GPanic => GPanic | GFuel => GFuel
    | GOk (w1, (a, b, c)) =>
      match go_acpi_locateRSDT_deferred fuel w1 hi low with
      | GPanic => GPanic | GFuel => GFuel
      | GOk (w2, _) => GOk (w2, (a, b, c))
      end
    end = locate_result tr0 low (scan m low hi align, np, np)).
  { pose proof (scan_is_translation m (evs ev_mapfn (page_of low) 0 (N.to_nat np) ++ tr0) low hi align fuel
                  Hok Hlow Hal Hhi Hf_scan Hf_slot) as Hs.
    unfold locate_result.
    destruct (scan m low hi align) as [p x| | |a|].
    - rewrite Hs. rewrite Hdef. reflexivity.
    - destruct Hs as (c & r & r2 & ->). cbv beta iota. rewrite Hdef. reflexivity.
    - destruct Hs.
    - rewrite Hs. reflexivity.
    - destruct Hs. }
  destruct pfail as [k|]; [destruct (k <? np)|]; try exact Hscan.
  cbv beta iota. rewrite Hdef. reflexivity.
Qed.

(** validTable, declaratively (with BytesProofs.validTable_true / validTable_false) *)
Theorem validTable_trans_spec : forall (m : mem) (tr0 : list gcall) (ptr len : N) (fuel : nat),
  ptr < two64 -> len < two32 -> (N.to_nat len < fuel)%nat ->
  (go_acpi_validTable fuel (mk_go_acpi_world tr0) ptr len (ld_of m) = GOk (mk_go_acpi_world tr0, true)
     <-> sums_to_zero m ptr len) /\
  (go_acpi_validTable fuel (mk_go_acpi_world tr0) ptr len (ld_of m) = GOk (mk_go_acpi_world tr0, false)
     <-> sums_to_nonzero m ptr len).
Proof.
  intros m tr0 ptr len fuel Hp Hl Hf. rewrite validTable_is_translation by assumption.
  rewrite <- validTable_true, <- validTable_false.
  destruct (validTable m ptr len) as [[|]|a]; split; split; intros H; try reflexivity; try discriminate H; inversion H.
Qed.

(** ---- mapACPITable ---- *)
Definition ev_idmap (c : idcall) : gcall := let '(f, sz, fl) := c in GCall "identityMapFn" [GNum f; GNum sz; GNum fl].

Definition is_idmap (c : gcall) : bool := match c with GCall n _ => String.eqb n "identityMapFn" end.
Definition n_idmap (tr : list gcall) : N := N.of_nat (List.length (filter is_idmap tr)).

(** the identityMapFn of the model's environment: returns the page of the frame it is given (identity mapping) and fails
    at the calls [fail] selects (numbered from 0 over the identityMapFn calls on the trace) *)
Definition o_idmap (fail : N -> bool) (tr : list gcall) : N * option string :=
  match tr with
  | GCall _ (GNum f :: _) :: _ => (f, if fail (n_idmap tr - 1) then Some "errMap"%string else None)
  | _ => (0, None)
  end.

Definition map_result (tr0 : list gcall) (s0 : seam) (r : seam * map_res) : gres (go_acpi_world * (N * N * option string)) :=
  let '(s', res) := r in
  let tr := map ev_idmap (firstn (N.to_nat (sk s' - sk s0)) (scalls s')) ++ tr0 in
  match res with
  | MOk hdr _ => GOk (W tr, (hdr, acpi_sizeof_SDTHeader, None))
  | MMismatch hdr _ => GOk (W tr, (hdr, acpi_sizeof_SDTHeader, Some "errTableChecksumMismatch"%string))
  | MErr => GOk (W tr, (0, acpi_sizeof_SDTHeader, Some "errMap"%string))
  | MStray _ => GPanic
  end.

Lemma frame_of_trans a : a < two64 -> go_mm_FrameFromAddress a = page_of a.
Proof. exact (page_of_trans a). Qed.

Lemma n_idmap_cons c tr : n_idmap (ev_idmap c :: tr) = n_idmap tr + 1.
Proof. destruct c as [[f sz] fl]. unfold n_idmap. cbn [ev_idmap filter is_idmap String.eqb Ascii.eqb Bool.eqb List.length]. lia. Qed.

Lemma o_idmap_cons fail f sz fl tr :
  o_idmap fail (GCall "identityMapFn" [GNum f; GNum sz; GNum fl] :: tr) =
  (f, if fail (n_idmap tr) then Some "errMap"%string else None).
Proof.
  change (GCall "identityMapFn" [GNum f; GNum sz; GNum fl]) with (ev_idmap (f, sz, fl)).
  unfold o_idmap. cbn [ev_idmap]. change (GCall "identityMapFn" [GNum f; GNum sz; GNum fl]) with (ev_idmap (f, sz, fl)).
  rewrite n_idmap_cons. replace (n_idmap tr + 1 - 1) with (n_idmap tr) by lia. reflexivity.
Qed.

Theorem mapACPITable_is_translation : forall (m : mem) (fail : N -> bool) (s : seam) (tr0 : list gcall) (addr : N) (fuel : nat),
  bytes_ok m -> addr < two64 -> sk s = n_idmap tr0 -> (N.to_nat two32 <= fuel)%nat ->
  go_acpi_mapACPITable fuel (W tr0) addr (ld_of m) (o_idmap fail) = map_result tr0 s (mapACPITable m fail s addr).
Proof.
  intros m fail s tr0 addr fuel Hok Ha Hsk Hf.
  unfold go_acpi_mapACPITable, mapACPITable, map_result, idmap. cbv zeta.
  rewrite (frame_of_trans addr Ha).
  cbn [set_f_world_trace f_world_trace W]. rewrite o_idmap_cons, <- Hsk.
  destruct (fail (sk s)) eqn:Hf1; cbn [negb gerr_eqb sk scalls].
  { replace (sk s + 1 - sk s) with 1 by lia. reflexivity. }
  set (hpa := w64 (w64 (N.shiftl (page_of addr) PageShift) + N.land addr acpi_vmm_PageOffsetMask)).
  replace (gw 64 (go_mm_Page_Address (page_of addr) + acpi_vmm_PageOffset addr)) with hpa.
  2:{ unfold hpa, go_mm_Page_Address, acpi_vmm_PageOffset, PageShift. change (gw 64) with w64.
      unfold w64. rewrite N.mod_mod by discriminate. reflexivity. }
  rewrite gfld_rdle by exact Hok. change (N.to_nat 4) with (N.to_nat acpi_sizeof_SDT_Length).
  destruct (rdle m (w64 (hpa + acpi_off_SDT_Length)) (N.to_nat acpi_sizeof_SDT_Length)) as [len|x] eqn:Hlen; [|reflexivity].
  assert (Hl : len < two32).
  { pose proof (rdle_lt m Hok _ _ _ Hlen) as Hv. rewrite N2Nat.id in Hv. exact Hv. }
  rewrite gw64_small by (unfold two64, two32 in *; lia).
  rewrite o_idmap_cons. cbn [negb].
  change (GCall "identityMapFn" [GNum (page_of addr); GNum acpi_sizeof_SDTHeader; GNum acpi_vmm_FlagPresent])
    with (ev_idmap (page_of addr, acpi_sizeof_SDTHeader, acpi_vmm_FlagPresent)).
  rewrite n_idmap_cons, <- Hsk.
  destruct (fail (sk s + 1)) eqn:Hf2; cbn [negb gerr_eqb sk scalls].
  { replace (sk s + 1 + 1 - sk s) with 2 by lia. reflexivity. }
  unfold W. rewrite validTable_is_translation; [|apply w64_lt|exact Hl|unfold two32 in *; lia].
  destruct (validTable m hpa len) as [[|]|x]; cbn [sk scalls]; try replace (sk s + 1 + 1 - sk s) with 2 by lia; reflexivity.
Qed.

(** ---- enumerateTables: the translated loops in structured form ---- *)
Definition Eres : Type := (go_acpi_world * option string)%type.
Definition Vst : Type := (go_acpi_world * option string * N * N)%type.     (* world, err, header, hidden range index *)

Definition mismatch_fmt : list N :=
  [37; 115; 32; 97; 116; 32; 48; 120; 37; 49; 54; 120; 32; 37; 54; 120; 32; 91; 99; 104; 101; 99; 107; 115; 117; 109; 32;
   109; 105; 115; 109; 97; 116; 99; 104; 59; 32; 115; 107; 105; 112; 112; 105; 110; 103; 93; 10].
   (* "%s at 0x%16x %6x [checksum mismatch; skipping]\n" *)

Definition push (w : go_acpi_world) (c : gcall) : go_acpi_world := set_f_world_trace w (c :: f_world_trace w).

(** after a failed mapACPITable: report a checksum mismatch and go on with the next entry, or return the error *)
Definition report_or_ret (ld : N -> N -> option N) (w : go_acpi_world) (err : option string) (header rng : N)
  : gres (gctl Vst Eres) :=
  if gerr_eqb err (Some "errTableChecksumMismatch"%string) then
    match gfld ld 4 header acpi_off_SDT_Signature with None => GPanic | Some sg =>
    match gfld ld 4 header acpi_off_SDT_Length with None => GPanic | Some len =>
      GOk (GNext (push w (GCall "Fprintf" [GBytes mismatch_fmt; GNum sg; GNum header; GNum len]), err, header, rng + 1))
    end end
  else GOk (GRet (w, err)).

(** [mapACPITable] and what follows it in both places: a failure is reported or returned, a good table is registered
    and [k] goes on (with the new world, the signature, the header, the nil error) *)
Definition mar_gstep (fuel : nat) (ld : N -> N -> option N) (o : list gcall -> N * option string)
  (w : go_acpi_world) (addr rng : N) (k : go_acpi_world -> N -> N -> option string -> gres (gctl Vst Eres))
  : gres (gctl Vst Eres) :=
  match go_acpi_mapACPITable fuel w addr ld o with
  | GPanic => GPanic | GFuel => GFuel
  | GOk (w, (h, _, e)) =>
    if negb (gerr_eqb e None) then report_or_ret ld w e h rng
    else match gfld ld 4 h acpi_off_SDT_Signature with None => GPanic | Some sg =>
         k (push w (GCall "tableMap.set" [GNum sg; GNum h])) sg h e end
  end.

Definition dsdt_gstep (fuel : nat) (ld : N -> N -> option N) (o : list gcall -> N * option string)
  (w : go_acpi_world) (dsdt rng : N) : gres (gctl Vst Eres) :=
  mar_gstep fuel ld o w dsdt rng (fun w _ h e => GOk (GNext (w, e, h, rng + 1))).

(** body of [for _, addr := range sdtAddresses] *)
Definition visit_gstep (fuel : nat) (ld : N -> N -> option N) (o : list gcall -> N * option string)
  (acpiRev : N) (addrs : list N) : Vst -> gres (gctl Vst Eres) :=
  fun st => let '(w, err, header, rng) := st in
  if rng <? glen addrs then
    match gidx addrs rng with None => GPanic | Some addr =>
    mar_gstep fuel ld o w addr rng (fun w sg h e =>
      if sg =? acpi_fadtSignature then
        match gfld ld 4 h acpi_off_FADT_Dsdt with None => GPanic | Some d32 =>
        if acpi_acpiRev2Plus <=? acpiRev then
          match gfld ld 8 h acpi_off_FADT_Ext_Dsdt with None => GPanic | Some d64 =>
          dsdt_gstep fuel ld o w (gw 64 d64) rng end
        else dsdt_gstep fuel ld o w (gw 64 d32) rng
        end
      else GOk (GNext (w, e, h, rng + 1)))
    end
  else GOk (GBreak (w, err, header, rng)).

(** body of the loop that reads the root table's entries ([wd] = 8 or 4 bytes each) *)
Definition entries_gstep (ld : N -> N -> option N) (wd : N)
  : go_acpi_world * N * N * list N -> gres (gctl (go_acpi_world * N * N * list N) Eres) :=
  fun st => let '(w, curPtr, i, lst) := st in
  if gslt 64 i (glen lst) then
    match gload ld wd curPtr with None => GPanic | Some v =>
    match gsets 64 lst i (gw 64 v) with None => GPanic | Some lst' =>
      GOk (GNext (w, gw 64 (curPtr + wd), gw 64 (i + 1), lst')) end end
  else GOk (GBreak (w, curPtr, i, lst)).

Definition walk_form (fuel : nat) (ld : N -> N -> option N) (o : list gcall -> N * option string)
  (w : go_acpi_world) (rsdt sizeofHeader acpiRev wd count : N) (err : option string) (header : N) : gres Eres :=
  match gmake count with None => GPanic | Some zeros =>
  match gloop fuel (entries_gstep ld wd) (w, gw 64 (rsdt + sizeofHeader), gw 64 0, zeros) with
  | GPanic => GPanic | GFuel => GFuel
  | GOk (inr r) => GOk r
  | GOk (inl st) => let '(w, _, _, addrs) := st in
    match gloop fuel (visit_gstep fuel ld o acpiRev addrs) (w, err, header, 0) with
    | GPanic => GPanic | GFuel => GFuel
    | GOk (inr r) => GOk r
    | GOk (inl st) => let '(w, _, _, _) := st in GOk (w, None)
    end
  end end.

Definition enum_form (fuel : nat) (w : go_acpi_world) (rsdt : N) (useXSDT : bool) (ld : N -> N -> option N)
  (o : list gcall -> N * option string) : gres Eres :=
  match go_acpi_mapACPITable fuel w rsdt ld o with
  | GPanic => GPanic | GFuel => GFuel
  | GOk (w, (header, sizeofHeader, err)) =>
    if negb (gerr_eqb err None) then GOk (w, err)
    else
      let w := push w (GCall "tableMap.make" []) in
      match gfld ld 1 header acpi_off_SDT_Revision with None => GPanic | Some acpiRev =>
      match gfld ld 4 header acpi_off_SDT_Length with None => GPanic | Some len =>
        let payload := gsub 32 len (gw 32 sizeofHeader) in
        if Bool.eqb useXSDT true
        then walk_form fuel ld o w rsdt sizeofHeader acpiRev 8 (N.shiftr payload 3) err header
        else walk_form fuel ld o w rsdt sizeofHeader acpiRev 4 (N.shiftr payload 2) err header
      end end
  end.

(** the regenerated enumerateTables IS this form (conversion) *)
Lemma enum_unfold fuel w rsdt useXSDT ld o :
  go_acpi_acpiDriver_enumerateTables fuel w rsdt useXSDT ld o = enum_form fuel w rsdt useXSDT ld o.
Proof. reflexivity. Qed.

(** ---- the model state a trace stands for ---- *)
Definition abs_step (c : gcall) (s : state) : state :=
  match c with
  | GCall n args =>
    if String.eqb n "identityMapFn" then
      match args with
      | [GNum f; GNum sz; GNum fl] => with_seam s (mkSeam (sk (st_seam s) + 1) ((f, sz, fl) :: scalls (st_seam s)))
      | _ => s
      end
    else if String.eqb n "Fprintf" then
      match args with
      | [GBytes _; GNum sg; GNum a; GNum len] => log s (EvMismatch sg a len)
      | _ => s
      end
    else if String.eqb n "tableMap.set" then
      match args with
      | [GNum k; GNum x] => register s k x
      | _ => s
      end
    else if String.eqb n "tableMap.make" then mkState (st_seam s) (st_events s) []
    else s
  end.

(** traces are most-recent-first: the oldest call acts first *)
Definition abs (tr : list gcall) : state := fold_right abs_step state0 tr.

Definition Inv (tr : list gcall) (s : state) : Prop := abs tr = s /\ sk (st_seam s) = n_idmap tr.

Lemma abs_cons c tr : abs (c :: tr) = abs_step c (abs tr).
Proof. reflexivity. Qed.

Lemma n_idmap_other n args tr : String.eqb n "identityMapFn" = false -> n_idmap (GCall n args :: tr) = n_idmap tr.
Proof. intros H. unfold n_idmap. cbn [filter is_idmap]. rewrite H. reflexivity. Qed.

Lemma Inv_idmap tr s c : Inv tr s ->
  Inv (ev_idmap c :: tr) (with_seam s (mkSeam (sk (st_seam s) + 1) (c :: scalls (st_seam s)))).
Proof.
  intros [Ha Hn]. destruct c as [[f sz] fl]. split.
  - rewrite abs_cons, Ha. reflexivity.
  - rewrite n_idmap_cons, <- Hn. reflexivity.
Qed.

Lemma Inv_log tr s fmt sg a len : Inv tr s ->
  Inv (GCall "Fprintf" [GBytes fmt; GNum sg; GNum a; GNum len] :: tr) (log s (EvMismatch sg a len)).
Proof.
  intros [Ha Hn]. split.
  - rewrite abs_cons, Ha. reflexivity.
  - rewrite n_idmap_other by reflexivity. exact Hn.
Qed.

Lemma Inv_register tr s k x : Inv tr s -> Inv (GCall "tableMap.set" [GNum k; GNum x] :: tr) (register s k x).
Proof.
  intros [Ha Hn]. split.
  - rewrite abs_cons, Ha. reflexivity.
  - rewrite n_idmap_other by reflexivity. exact Hn.
Qed.

Lemma Inv_make tr s : Inv tr s -> st_tmap s = [] -> Inv (GCall "tableMap.make" [] :: tr) s.
Proof.
  intros [Ha Hn] Ht. split.
  - rewrite abs_cons, Ha. destruct s as [sm ev tm]. cbn in Ht. subst tm. reflexivity.
  - rewrite n_idmap_other by reflexivity. exact Hn.
Qed.

(** ---- one mapACPITable call, in terms of the invariant ---- *)
Definition gmap (m : mem) (fail : N -> bool) (fuel : nat) (tr : list gcall) (addr : N) :=
  go_acpi_mapACPITable fuel (W tr) addr (ld_of m) (o_idmap fail).

Lemma map_step m fail fuel tr s addr : bytes_ok m -> addr < two64 -> (N.to_nat two32 <= fuel)%nat -> Inv tr s ->
  match mapACPITable m fail (st_seam s) addr with
  | (sm, MStray _) => gmap m fail fuel tr addr = GPanic
  | (sm, MErr) => exists tr', gmap m fail fuel tr addr = GOk (W tr', (0, acpi_sizeof_SDTHeader, Some "errMap"%string)) /\
                              Inv tr' (with_seam s sm)
  | (sm, MOk hdr len) =>
      exists tr', gmap m fail fuel tr addr = GOk (W tr', (hdr, acpi_sizeof_SDTHeader, None)) /\ Inv tr' (with_seam s sm) /\
                  hdr < two64 /\ rdle m (w64 (hdr + acpi_off_SDT_Length)) (N.to_nat acpi_sizeof_SDT_Length) = Got len
  | (sm, MMismatch hdr len) =>
      exists tr', gmap m fail fuel tr addr = GOk (W tr', (hdr, acpi_sizeof_SDTHeader, Some "errTableChecksumMismatch"%string)) /\
                  Inv tr' (with_seam s sm) /\
                  hdr < two64 /\ rdle m (w64 (hdr + acpi_off_SDT_Length)) (N.to_nat acpi_sizeof_SDT_Length) = Got len
  end.
Proof.
  intros Hok Ha Hf HI. unfold gmap.
  rewrite (mapACPITable_is_translation m fail (st_seam s) tr addr fuel Hok Ha (proj2 HI) Hf).
  unfold mapACPITable, idmap, map_result.
  set (c1 := (page_of addr, acpi_sizeof_SDTHeader, acpi_vmm_FlagPresent)).
  pose proof (Inv_idmap tr s c1 HI) as HI1.
  cbv beta iota zeta. cbn [sk scalls].
  destruct (fail (sk (st_seam s))); cbn [negb]; cbv beta iota.
  { cbn [sk scalls]. replace (sk (st_seam s) + 1 - sk (st_seam s)) with 1 by lia.
    eexists. split; [reflexivity|]. exact HI1. }
  set (hpa := w64 (w64 (N.shiftl (page_of addr) PageShift) + N.land addr acpi_vmm_PageOffsetMask)).
  destruct (rdle m (w64 (hpa + acpi_off_SDT_Length)) (N.to_nat acpi_sizeof_SDT_Length)) as [len|x] eqn:Hlen; [|reflexivity].
  set (c2 := (page_of addr, len, acpi_vmm_FlagPresent)).
  pose proof (Inv_idmap _ _ c2 HI1) as HI2. cbn [st_seam with_seam sk scalls] in HI2.
  destruct (fail (sk (st_seam s) + 1)); cbn [negb]; cbv beta iota.
  { cbn [sk scalls]. replace (sk (st_seam s) + 1 + 1 - sk (st_seam s)) with 2 by lia.
    eexists. split; [reflexivity|]. destruct s; exact HI2. }
  assert (Hh : hpa < two64) by apply w64_lt.
  destruct (validTable m hpa len) as [[|]|x]; cbv beta iota; cbn [sk scalls];
    try (replace (sk (st_seam s) + 1 + 1 - sk (st_seam s)) with 2 by lia;
         eexists; split; [reflexivity|]; split; [destruct s; exact HI2|]; split; [exact Hh|exact Hlen]).
  reflexivity.
Qed.

(** ---- one iteration of the walk ---- *)
(** what a translated loop step must be, given what the model's step says *)
Definition step_ok (res : gres (gctl Vst Eres)) (rng : N) (r : state * option init_res) : Prop :=
  match r with
  | (s1, None) => exists tr' e h, res = GOk (GNext (W tr', e, h, rng + 1)) /\ Inv tr' s1
  | (s1, Some IErrMap) => exists tr', res = GOk (GRet (W tr', Some "errMap"%string)) /\ Inv tr' s1
  | (s1, Some (IStray _)) => res = GPanic
  | (s1, Some _) => False
  end.

Lemma sig_fld m hdr : bytes_ok m ->
  gfld (ld_of m) 4 hdr acpi_off_SDT_Signature = match sig_of m hdr with Got v => Some v | Fault _ => None end.
Proof. intros Hok. rewrite gfld_rdle by exact Hok. reflexivity. Qed.

Lemma report_mismatch m tr s hdr len rng : bytes_ok m -> Inv tr s ->
  rdle m (w64 (hdr + acpi_off_SDT_Length)) (N.to_nat acpi_sizeof_SDT_Length) = Got len ->
  step_ok (report_or_ret (ld_of m) (W tr) (Some "errTableChecksumMismatch"%string) hdr rng) rng
          (match sig_of m hdr with Fault a => (s, Some (IStray a)) | Got sg => (log s (EvMismatch sg hdr len), None) end).
Proof.
  intros Hok HI Hlen. unfold report_or_ret. cbn [gerr_eqb String.eqb Ascii.eqb Bool.eqb].
  rewrite sig_fld by exact Hok. destruct (sig_of m hdr) as [sg|a]; [|reflexivity].
  rewrite gfld_rdle by exact Hok. change (N.to_nat 4) with (N.to_nat acpi_sizeof_SDT_Length). rewrite Hlen.
  cbn [step_ok]. eexists _, _, _. split; [reflexivity|]. apply Inv_log. exact HI.
Qed.

Lemma report_err m tr s h rng : Inv tr s ->
  step_ok (report_or_ret (ld_of m) (W tr) (Some "errMap"%string) h rng) rng (s, Some IErrMap).
Proof. intros HI. unfold report_or_ret. cbn. eexists. split; [reflexivity|exact HI]. Qed.

Lemma mar_step m fail fuel tr s addr rng k : bytes_ok m -> addr < two64 -> (N.to_nat two32 <= fuel)%nat -> Inv tr s ->
  match map_and_register m fail s addr with
  | (s1, None, Some (sg, hdr)) =>
      exists tr', Inv tr' s1 /\ mar_gstep fuel (ld_of m) (o_idmap fail) (W tr) addr rng k = k (W tr') sg hdr None
  | (s1, e, _) => step_ok (mar_gstep fuel (ld_of m) (o_idmap fail) (W tr) addr rng k) rng (s1, e)
  end.
Proof.
  intros Hok Ha Hf HI. unfold mar_gstep, map_and_register.
  pose proof (map_step m fail fuel tr s addr Hok Ha Hf HI) as Hm. unfold gmap in Hm.
  destruct (mapACPITable m fail (st_seam s) addr) as [sm [hdr len|hdr len| |a]].
  - destruct Hm as (tr' & -> & HI' & Hh & Hlen). cbn [negb gerr_eqb].
    rewrite sig_fld by exact Hok. destruct (sig_of m hdr) as [sg|a]; [|reflexivity].
    eexists. split; [apply Inv_register; exact HI'|reflexivity].
  - destruct Hm as (tr' & -> & HI' & Hh & Hlen). cbn [negb gerr_eqb].
    pose proof (report_mismatch m tr' (with_seam s sm) hdr len rng Hok HI' Hlen) as Hr.
    destruct (sig_of m hdr); exact Hr.
  - destruct Hm as (tr' & -> & HI'). cbn [negb gerr_eqb]. apply report_err. exact HI'.
  - rewrite Hm. reflexivity.
Qed.

Lemma dsdt_step m fail fuel tr s d rng : bytes_ok m -> d < two64 -> (N.to_nat two32 <= fuel)%nat -> Inv tr s ->
  step_ok (dsdt_gstep fuel (ld_of m) (o_idmap fail) (W tr) d rng) rng
          (let '(s2, e, _) := map_and_register m fail s d in (s2, e)).
Proof.
  intros Hok Hd Hf HI. unfold dsdt_gstep.
  pose proof (mar_step m fail fuel tr s d rng (fun w _ h e => GOk (GNext (w, e, h, rng + 1))) Hok Hd Hf HI) as H.
  destruct (map_and_register m fail s d) as [[s2 [e|]] [[sg hdr]|]]; try exact H.
  destruct H as (tr' & HI' & ->). eexists _, _, _. split; [reflexivity|exact HI'].
Qed.

Lemma visit_step m fail fuel tr s acpiRev addrs addr err header rng :
  bytes_ok m -> addr < two64 -> (N.to_nat two32 <= fuel)%nat -> Inv tr s ->
  rng < glen addrs -> gidx addrs rng = Some addr ->
  step_ok (visit_gstep fuel (ld_of m) (o_idmap fail) acpiRev addrs (W tr, err, header, rng)) rng
          (visit m fail acpiRev s addr).
Proof.
  intros Hok Ha Hf HI Hr Hg. unfold visit_gstep. cbv beta iota.
  destruct (N.ltb_spec rng (glen addrs)) as [_|]; [|lia]. rewrite Hg. unfold visit.
  match goal with |- context [mar_gstep _ _ _ _ _ _ ?k] => pose proof (mar_step m fail fuel tr s addr rng k Hok Ha Hf HI) as H end.
  destruct (map_and_register m fail s addr) as [[s1 [e|]] [[sg hdr]|]]; try exact H.
  destruct H as (tr' & HI' & ->). cbv beta.
  destruct (sg =? acpi_fadtSignature); [|eexists _, _, _; split; [reflexivity|exact HI']].
  unfold dsdt_pointer. rewrite gfld_rdle by exact Hok. change (N.to_nat 4) with (N.to_nat acpi_sizeof_FADT_Dsdt).
  destruct (rdle m (w64 (hdr + acpi_off_FADT_Dsdt)) (N.to_nat acpi_sizeof_FADT_Dsdt)) as [d32|a] eqn:Hd32; [|reflexivity].
  destruct (acpi_acpiRev2Plus <=? acpiRev).
  - rewrite gfld_rdle by exact Hok. change (N.to_nat 8) with (N.to_nat acpi_sizeof_FADT_Ext_Dsdt).
    destruct (rdle m (w64 (hdr + acpi_off_FADT_Ext_Dsdt)) (N.to_nat acpi_sizeof_FADT_Ext_Dsdt)) as [d64|a] eqn:Hd64; [|reflexivity].
    assert (Hd : d64 < two64) by (eapply rdle_lt64; [exact Hok| |exact Hd64]; vm_compute; lia).
    rewrite gw64_small by exact Hd. apply (dsdt_step m fail fuel _ _ d64 rng Hok Hd Hf HI').
  - assert (Hd : d32 < two64) by (eapply rdle_lt64; [exact Hok| |exact Hd32]; vm_compute; lia).
    rewrite gw64_small by exact Hd. apply (dsdt_step m fail fuel _ _ d32 rng Hok Hd Hf HI').
Qed.

(** ---- the walk over the entries = [visit_all] ---- *)
Lemma visit_loop m fail fuel acpiRev addrs : bytes_ok m -> (N.to_nat two32 <= fuel)%nat ->
  Forall (fun a => a < two64) addrs ->
  forall rest j tr s err header fu, skipn j addrs = rest -> (j + List.length rest = List.length addrs)%nat ->
    Inv tr s -> (List.length rest < fu)%nat ->
    match visit_all m fail acpiRev s rest with
    | (s', IOk) => exists tr' e h,
        gloop fu (visit_gstep fuel (ld_of m) (o_idmap fail) acpiRev addrs) (W tr, err, header, N.of_nat j) =
        GOk (inl (W tr', e, h, N.of_nat (List.length addrs))) /\ Inv tr' s'
    | (s', IErrMap) => exists tr',
        gloop fu (visit_gstep fuel (ld_of m) (o_idmap fail) acpiRev addrs) (W tr, err, header, N.of_nat j) =
        GOk (inr (W tr', Some "errMap"%string)) /\ Inv tr' s'
    | (s', IStray _) =>
        gloop fu (visit_gstep fuel (ld_of m) (o_idmap fail) acpiRev addrs) (W tr, err, header, N.of_nat j) = GPanic
    | (s', IErrChecksum) => False
    end.
Proof.
  intros Hok Hf Hall rest. induction rest as [|a rest IH]; intros j tr s err header fu Hs Hj HI Hfu;
    (destruct fu as [|fu]; [cbn in Hfu; lia|]).
  - cbn [visit_all]. cbn [List.length] in Hj. replace j with (List.length addrs) by lia.
    eexists _, _, _. split; [|exact HI]. apply gloop_fin.
    unfold visit_gstep. cbv beta iota. unfold glen. rewrite N.ltb_irrefl. reflexivity.
  - cbn [visit_all List.length] in *. destruct (skipn_cons_nth _ _ _ _ Hs) as [Hn Hs'].
    assert (Ha : a < two64).
    { rewrite Forall_forall in Hall. apply Hall. eapply nth_error_In. exact Hn. }
    pose proof (visit_step m fail fuel tr s acpiRev addrs a err header (N.of_nat j) Hok Ha Hf HI
                  ltac:(unfold glen; lia) ltac:(unfold gidx; rewrite Nat2N.id; exact Hn)) as Hst.
    destruct (visit m fail acpiRev s a) as [s1 [e|]]; cbn [step_ok] in Hst.
    + destruct e as [| | |x]; try contradiction.
      * destruct Hst as (tr' & Hr & HI'). exists tr'. split; [|exact HI']. apply gloop_fin. rewrite Hr. reflexivity.
      * apply gloop_fin. rewrite Hst. reflexivity.
    + destruct Hst as (tr' & e & h & Hr & HI'). rewrite (gloop_next _ _ _ _ Hr).
      replace (N.of_nat j + 1) with (N.of_nat (S j)) by lia.
      apply IH; [exact Hs'|lia|exact HI'|lia].
Qed.

(** ---- reading the entries = [read_entries] ---- *)
Lemma entries_loop m tr start w count fuel : bytes_ok m -> start < two64 -> (w = 4 \/ w = 8)%nat ->
  count < two32 -> (N.to_nat count < fuel)%nat ->
  match read_entries m start w count with
  | Got addrs => exists p, gloop fuel (entries_gstep (ld_of m) (N.of_nat w)) (W tr, start, gw 64 0, repeat 0 (N.to_nat count)) =
                           GOk (inl (W tr, p, count, addrs)) /\ Forall (fun a => a < two64) addrs /\
                           List.length addrs = N.to_nat count
  | Fault _ => gloop fuel (entries_gstep (ld_of m) (N.of_nat w)) (W tr, start, gw 64 0, repeat 0 (N.to_nat count)) = GPanic
  end.
Proof.
  intros Hok Hst Hw Hc Hf.
  set (gstep := entries_gstep (ld_of m) (N.of_nat w)).
  pose (Rel := fun (k : N) (s : N * list N) (g : go_acpi_world * N * N * list N) =>
                 fst s < two64 /\ List.length (snd s) = N.to_nat k /\ Forall (fun a => a < two64) (snd s) /\
                 g = (W tr, fst s, k, rev (snd s) ++ repeat 0 (N.to_nat (count - k)))).
  pose (Q := fun (_ : N) (r : gres (go_acpi_world * N * N * list N + Eres)) => r = GPanic).
  assert (Hstep : forall k s g, k < count -> Rel k s g ->
    match entry_step m w s with
    | inl s' => exists g', gstep g = GOk (GNext g') /\ Rel (k + 1) s' g'
    | inr e => exists res, fin (gstep g) = Some res /\ Q e res
    end).
  { intros k [p acc] g Hk (Hp & Hl & Hacc & ->). cbn [fst snd] in *. unfold entry_step, gstep, entries_gstep. cbv beta iota.
    assert (Hglen : glen (rev acc ++ repeat 0 (N.to_nat (count - k))) = count).
    { unfold glen. rewrite app_length, rev_length, repeat_length, Hl. lia. }
    rewrite Hglen, gslt_small by (unfold two63, two32 in *; lia).
    destruct (N.ltb_spec k count) as [_|]; [|lia].
    rewrite gload_rdle by exact Hok. rewrite Nat2N.id.
    destruct (rdle m p w) as [v|a] eqn:Hv.
    - assert (Hv64 : v < two64) by (eapply rdle_lt64; [exact Hok| |exact Hv]; lia).
      rewrite gw64_small by exact Hv64.
      unfold gsets, gisneg. change (2 ^ (64 - 1)) with 9223372036854775808.
      destruct (N.leb_spec 9223372036854775808 k) as [Hbig|_]; [unfold two32 in *; lia|].
      unfold gset. rewrite Hglen. destruct (N.ltb_spec k count) as [_|]; [|lia].
      eexists. split; [reflexivity|]. unfold Rel. cbn [fst snd]. split; [apply w64_lt|]. split; [cbn [List.length]; lia|].
      split; [constructor; assumption|].
      change (gw 64 (p + N.of_nat w)) with (w64 (p + N.of_nat w)).
      rewrite (gw64_small (k + 1)) by (unfold two64, two32 in *; lia).
      f_equal.
      assert (Hk' : List.length (rev acc) = N.to_nat k) by (rewrite rev_length; exact Hl).
      rewrite firstn_app, <- Hk', firstn_all, Nat.sub_diag. cbn [firstn]. rewrite app_nil_r.
      rewrite skipn_app. replace (S (List.length (rev acc)) - List.length (rev acc))%nat with 1%nat by lia.
      rewrite skipn_all2 by lia. cbn [app rev].
      replace (N.to_nat (count - k)) with (S (N.to_nat (count - (k + 1)))) by lia.
      cbn [repeat skipn]. rewrite <- app_assoc. reflexivity.
    - eexists. split; reflexivity. }
  pose proof (iter_gloop (entry_step m w) gstep Rel Q count Hstep count 0 (start, []) (W tr, start, gw 64 0, repeat 0 (N.to_nat count)) fuel
                ltac:(lia)
                ltac:(cbn [fst snd]; split; [exact Hst|]; split; [reflexivity|]; split; [constructor|]; rewrite N.sub_0_r; reflexivity)
                ltac:(lia)) as H.
  unfold read_entries.
  destruct (iter_N (entry_step m w) count (start, [])) as [[p acc]|e].
  - destruct H as (g' & (Hp & Hl & Hacc & ->) & ->). cbn [fst snd] in *.
    exists p. split; [|split; [apply Forall_rev; exact Hacc|rewrite rev_length, Hl; lia]].
    destruct (fuel - N.to_nat count)%nat as [|f] eqn:Ef; [lia|].
    apply gloop_fin. unfold gstep, entries_gstep. cbv beta iota.
    replace (N.to_nat (count - (0 + count))) with 0%nat by lia. cbn [repeat]. rewrite app_nil_r.
    assert (Hglen : glen (rev acc) = count) by (unfold glen; rewrite rev_length, Hl; lia).
    rewrite Hglen, gslt_small by (unfold two63, two32 in *; lia).
    rewrite N.add_0_l, N.ltb_irrefl. reflexivity.
  - unfold Q in H. exact H.
Qed.

(** ---- enumerateTables ---- *)
Definition err_of (r : init_res) : option string :=
  match r with
  | IOk | IStray _ => None
  | IErrChecksum => Some "errTableChecksumMismatch"%string
  | IErrMap => Some "errMap"%string
  end.

Definition enum_ok (res : gres Eres) (r : state * init_res) : Prop :=
  match r with
  | (_, IStray _) => res = GPanic
  | (s, r) => exists tr, res = GOk (W tr, err_of r) /\ abs tr = s
  end.

Lemma walk_is_translation m fail fuel tr s rsdt acpiRev w count err header :
  bytes_ok m -> (N.to_nat two32 <= fuel)%nat -> Inv tr s -> (w = 4 \/ w = 8)%nat -> count < two32 ->
  match read_entries m (w64 (rsdt + acpi_sizeof_SDTHeader)) w count with
  | Fault a => walk_form fuel (ld_of m) (o_idmap fail) (W tr) rsdt acpi_sizeof_SDTHeader acpiRev (N.of_nat w) count err header = GPanic
  | Got addrs =>
      match visit_all m fail acpiRev s addrs with
      | (_, IErrChecksum) => False
      | r => enum_ok (walk_form fuel (ld_of m) (o_idmap fail) (W tr) rsdt acpi_sizeof_SDTHeader acpiRev (N.of_nat w) count err header) r
      end
  end.
Proof.
  intros Hok Hf HI Hw Hc. unfold walk_form.
  unfold gmake. destruct (N.ltb_spec count (2 ^ 63)) as [_|Hbig].
  2:{ change (2 ^ 63) with 9223372036854775808 in Hbig. unfold two32 in Hc. lia. }
  change (gw 64 (rsdt + acpi_sizeof_SDTHeader)) with (w64 (rsdt + acpi_sizeof_SDTHeader)).
  pose proof (entries_loop m tr (w64 (rsdt + acpi_sizeof_SDTHeader)) w count fuel Hok (w64_lt _) Hw Hc
                ltac:(unfold two32 in *; lia)) as He.
  destruct (read_entries m (w64 (rsdt + acpi_sizeof_SDTHeader)) w count) as [addrs|a].
  2:{ rewrite He. reflexivity. }
  destruct He as (p & -> & Hall & Hlen). cbv beta iota.
  pose proof (visit_loop m fail fuel acpiRev addrs Hok Hf Hall addrs 0 tr s err header fuel eq_refl eq_refl HI
                ltac:(unfold two32 in *; lia)) as Hv.
  change (N.of_nat 0) with 0 in Hv.
  destruct (visit_all m fail acpiRev s addrs) as [s' [| | |x]].
  - destruct Hv as (tr' & e & h & -> & HI'). cbv beta iota. exists tr'. split; [reflexivity|exact (proj1 HI')].
  - exact Hv.
  - destruct Hv as (tr' & -> & HI'). exists tr'. split; [reflexivity|exact (proj1 HI')].
  - cbn [enum_ok]. rewrite Hv. reflexivity.
Qed.

(** from any trace that stands for the initial state (e.g. one holding only the probe's mapFn / unmapFn calls) *)
Theorem enumerateTables_is_translation_from : forall (m : mem) (fail : N -> bool) (rsdt : N) (useXSDT : bool) (fuel : nat) (tr0 : list gcall),
  bytes_ok m -> rsdt < two64 -> (N.to_nat two32 <= fuel)%nat -> Inv tr0 state0 ->
  enum_ok (go_acpi_acpiDriver_enumerateTables fuel (W tr0) rsdt useXSDT (ld_of m) (o_idmap fail))
          (enumerateTables m fail rsdt useXSDT).
Proof.
  intros m fail rsdt useXSDT fuel tr0 Hok Hr Hf HI0. rewrite enum_unfold. unfold enum_form, enumerateTables.
  pose proof (map_step m fail fuel tr0 state0 rsdt Hok Hr Hf HI0) as Hm. unfold gmap in Hm.
  destruct (mapACPITable m fail (st_seam state0) rsdt) as [sm [hdr len|hdr len| |a]].
  - destruct Hm as (tr' & -> & HI' & Hh & Hlen). cbn [negb gerr_eqb].
    assert (HI1 : Inv (GCall "tableMap.make" [] :: tr') (with_seam state0 sm)) by (apply Inv_make; [exact HI'|reflexivity]).
    change (push (W tr') (GCall "tableMap.make" [])) with (W (GCall "tableMap.make" [] :: tr')).
    rewrite gfld1. unfold rd8.
    destruct (m (w64 (hdr + acpi_off_SDT_Revision))) as [rev|] eqn:Hrev; [|reflexivity].
    rewrite (w8_byte m Hok _ _ Hrev).
    rewrite gfld_rdle by exact Hok. change (N.to_nat 4) with (N.to_nat acpi_sizeof_SDT_Length). rewrite Hlen.
    change (gsub 32 len (gw 32 acpi_sizeof_SDTHeader)) with (sub32 len acpi_sizeof_SDTHeader).
    set (payload := sub32 len acpi_sizeof_SDTHeader).
    assert (Hp : payload < two32) by apply w32_lt.
    set (w := if useXSDT then 8%nat else 4%nat). set (count := N.shiftr payload (if useXSDT then 3 else 2)).
    assert (Hc : count < two32).
    { unfold count. rewrite N.shiftr_div_pow2. unfold two32 in *. destruct useXSDT; [change (2 ^ 3) with 8|change (2 ^ 2) with 4]; lia. }
    pose proof (walk_is_translation m fail fuel _ _ rsdt rev w count None hdr Hok Hf HI1
                  ltac:(destruct useXSDT; [right|left]; reflexivity) Hc) as Hw.
    replace (if Bool.eqb useXSDT true then _ else _)
      with (walk_form fuel (ld_of m) (o_idmap fail) (W (GCall "tableMap.make" [] :: tr')) rsdt acpi_sizeof_SDTHeader rev
              (N.of_nat w) count None hdr) by (destruct useXSDT; reflexivity).
    destruct (read_entries m (w64 (rsdt + acpi_sizeof_SDTHeader)) w count) as [addrs|a]; [|exact Hw].
    destruct (visit_all m fail rev (with_seam state0 sm) addrs) as [s' [| | |x]]; try exact Hw. contradiction.
  - destruct Hm as (tr' & -> & HI' & _). cbn [negb gerr_eqb]. exists tr'. split; [reflexivity|exact (proj1 HI')].
  - destruct Hm as (tr' & -> & HI'). cbn [negb gerr_eqb]. exists tr'. split; [reflexivity|exact (proj1 HI')].
  - cbn [enum_ok]. rewrite Hm. reflexivity.
Qed.

Theorem enumerateTables_is_translation : forall (m : mem) (fail : N -> bool) (rsdt : N) (useXSDT : bool) (fuel : nat),
  bytes_ok m -> rsdt < two64 -> (N.to_nat two32 <= fuel)%nat ->
  enum_ok (go_acpi_acpiDriver_enumerateTables fuel (W []) rsdt useXSDT (ld_of m) (o_idmap fail))
          (enumerateTables m fail rsdt useXSDT).
Proof.
  intros m fail rsdt useXSDT fuel Hok Hr Hf.
  apply enumerateTables_is_translation_from; try assumption. split; reflexivity.
Qed.

(** ---- probeForACPI ---- *)
(** the driver value [&acpiDriver{rsdtAddr, useXSDT}] / nil is (true, rsdtAddr, useXSDT) / (false, 0, false) *)
Definition probe_result (tr0 : list gcall) (low : N) (r : probe_res * N * N) : gres (go_acpi_world * (bool * N * bool)) :=
  let '(pr, nmap, nunmap) := r in
  let tr := evs ev_unmapfn (page_of low) 0 (N.to_nat nunmap) ++ evs ev_mapfn (page_of low) 0 (N.to_nat nmap) ++ tr0 in
  match pr with
  | PFound root x => GOk (W tr, (true, root, x))
  | PMissing | PMapErr => GOk (W tr, (false, 0, false))
  | PStray _ => GPanic
  | PFuel => GFuel
  end.

Theorem probe_is_translation : forall (m : mem) (low hi align : N) (pfail : option N) (tr0 : list gcall) (fuel : nat),
  bytes_ok m -> low < two64 -> 0 < align -> hi + align <= two64 ->
  (N.to_nat (locate_fuel low hi align) < fuel)%nat ->
  go_acpi_probeForACPI fuel (W tr0) (ld_of m) align hi low (o_map pfail (List.length tr0)) =
  probe_result tr0 low (locateRSDT m low hi align pfail).
Proof.
  intros m low hi align pfail tr0 fuel Hok Hlow Hal Hhi Hf. unfold go_acpi_probeForACPI.
  rewrite (locateRSDT_is_translation m low hi align pfail tr0 fuel Hok Hlow Hal Hhi Hf).
  unfold locate_result, probe_result.
  destruct (locateRSDT m low hi align pfail) as [[pr nmap] nunmap]. destruct pr; reflexivity.
Qed.

(** ---- DriverInit ---- *)
Definition ev_print : gcall := GCall "printTableInfo" [].

(** printTableInfo is a seam: the translation records the call; what it prints (and whether reading the registered headers
    strays, the model's [info_lines]) lies behind it *)
Definition init_ok (res : gres Eres) (r : state * init_res * list event) : Prop :=
  match r with
  | (s, IOk, _) => exists tr, res = GOk (W (ev_print :: tr), None) /\ abs tr = s
  | (s, IStray _, _) => res = GPanic \/ exists tr, res = GOk (W (ev_print :: tr), None) /\ abs tr = s
  | (s, r, _) => exists tr, res = GOk (W tr, err_of r) /\ abs tr = s
  end.

Theorem driverInit_is_translation_from : forall (m : mem) (fail : N -> bool) (rsdt : N) (useXSDT : bool) (fuel : nat) (tr0 : list gcall),
  bytes_ok m -> rsdt < two64 -> (N.to_nat two32 <= fuel)%nat -> Inv tr0 state0 ->
  init_ok (go_acpi_acpiDriver_DriverInit fuel (W tr0) rsdt useXSDT (ld_of m) (o_idmap fail))
          (driverInit m fail rsdt useXSDT).
Proof.
  intros m fail rsdt useXSDT fuel tr0 Hok Hr Hf HI0. unfold go_acpi_acpiDriver_DriverInit, driverInit.
  pose proof (enumerateTables_is_translation_from m fail rsdt useXSDT fuel tr0 Hok Hr Hf HI0) as He.
  destruct (enumerateTables m fail rsdt useXSDT) as [s [| | |a]]; cbn [enum_ok err_of] in He.
  - destruct He as (tr & -> & Ha). cbn [negb gerr_eqb].
    destruct (info_lines m (canon (st_tmap s))) as [es|a]; cbn [init_ok].
    + exists tr. split; [reflexivity|exact Ha].
    + right. exists tr. split; [reflexivity|exact Ha].
  - destruct He as (tr & -> & Ha). cbn. exists tr. split; [reflexivity|exact Ha].
  - destruct He as (tr & -> & Ha). cbn. exists tr. split; [reflexivity|exact Ha].
  - cbn [init_ok]. left. rewrite He. reflexivity.
Qed.

Theorem driverInit_is_translation : forall (m : mem) (fail : N -> bool) (rsdt : N) (useXSDT : bool) (fuel : nat),
  bytes_ok m -> rsdt < two64 -> (N.to_nat two32 <= fuel)%nat ->
  init_ok (go_acpi_acpiDriver_DriverInit fuel (W []) rsdt useXSDT (ld_of m) (o_idmap fail))
          (driverInit m fail rsdt useXSDT).
Proof.
  intros m fail rsdt useXSDT fuel Hok Hr Hf.
  apply driverInit_is_translation_from; try assumption. split; reflexivity.
Qed.

(** ---- probe, then DriverInit on the driver it returns (what device detection does) ---- *)
Definition probe_then_init (fuel : nat) (tr0 : list gcall) (ld : N -> N -> option N) (align hi low : N)
  (o_mapFn : list gcall -> option string) (o_idFn : list gcall -> N * option string)
  : gres (go_acpi_world * (bool * option string)) :=
  match go_acpi_probeForACPI fuel (W tr0) ld align hi low o_mapFn with
  | GPanic => GPanic | GFuel => GFuel
  | GOk (w, (false, _, _)) => GOk (w, (false, None))               (* no driver: nothing to initialise *)
  | GOk (w, (true, rsdtAddr, useXSDT)) =>
      match go_acpi_acpiDriver_DriverInit fuel w rsdtAddr useXSDT ld o_idFn with
      | GPanic => GPanic | GFuel => GFuel
      | GOk (w', e) => GOk (w', (true, e))
      end
  end.

Lemma check_slot_accept_lt m cur p x : bytes_ok m -> check_slot m cur = SAccept p x -> p < two64.
Proof.
  intros Hok. rewrite check_slot_tail.
  destruct (sig_match m (w64 (cur + 0)) rsdp_signature) as [[|]|e]; try discriminate.
  destruct (rd8 m (w64 (cur + 15))) as [rev|e]; try discriminate.
  assert (Ht : forall len off sz b, (sz <= 8)%nat -> slot_tail m cur len off sz b = SAccept p x -> p < two64).
  { intros len off sz b Hsz. unfold slot_tail. destruct (validTable m cur len) as [[|]|e]; try discriminate.
    destruct (rdle m (w64 (cur + off)) sz) as [v|e] eqn:Hv; try discriminate.
    intros H. injection H as <- _. eapply rdle_lt64; eassumption. }
  destruct (rev =? 0); apply Ht; lia.
Qed.

Lemma scan_rel_found_lt m hi align : bytes_ok m -> forall cur r, scan_rel m hi align cur r ->
  forall p x, r = PFound p x -> p < two64.
Proof.
  intros Hok cur r H. induction H; intros p' x' E; try discriminate.
  - inversion E; subst. eapply check_slot_accept_lt; eassumption.
  - eapply IHscan_rel. exact E.
Qed.

Lemma locate_scan m low hi align pfail pr nm nu :
  locateRSDT m low hi align pfail = (pr, nm, nu) -> pr = PMapErr \/ pr = scan m low hi align.
Proof.
  intros H. change pr with (fst (fst (pr, nm, nu))). rewrite <- H. unfold locateRSDT.
  destruct pfail as [k|]; [destruct (k <? _)|]; [left|right|right]; reflexivity.
Qed.

Lemma locate_found_lt m low hi align pfail root x nm nu : bytes_ok m -> 0 < align -> hi + align <= two64 ->
  locateRSDT m low hi align pfail = (PFound root x, nm, nu) -> root < two64.
Proof.
  intros Hok Hal Hhi H. destruct (locate_scan _ _ _ _ _ _ _ _ H) as [Hs|Hs]; [discriminate Hs|].
  eapply scan_rel_found_lt; [exact Hok|apply (scan_is_rel m low hi align Hal Hhi)|symmetry; exact Hs].
Qed.

(** calls that are neither identityMapFn nor one of the driver's own events leave the model state alone *)
Definition other_call (c : gcall) : Prop := (forall s, abs_step c s = s) /\ is_idmap c = false.

Lemma Inv_app_other l tr s : Forall other_call l -> Inv tr s -> Inv (l ++ tr) s.
Proof.
  induction 1 as [|c l [Hc Hi] _ IH]; intros HI; [exact HI|].
  specialize (IH HI). destruct IH as [Ha Hn]. cbn [app]. split.
  - rewrite abs_cons, Ha. apply Hc.
  - destruct c as [n a]. unfold n_idmap in *. cbn [filter]. cbn [is_idmap] in Hi. change (is_idmap (GCall n a)) with (String.eqb n "identityMapFn"). rewrite Hi. exact Hn.
Qed.

Lemma evs_other mk first i n : (forall p, other_call (mk p)) -> Forall other_call (evs mk first i n).
Proof.
  intros H. unfold evs. apply Forall_rev. rewrite Forall_forall. intros c Hin.
  apply in_map_iff in Hin. destruct Hin as (j & <- & _). apply H.
Qed.

Definition pti_ok (res : gres (go_acpi_world * (bool * option string))) (m : mem) (fail : N -> bool)
  (r : probe_res * N * N) : Prop :=
  match r with
  | (PFound root x, _, _) =>
      match driverInit m fail root x with
      | (s, IOk, _) => exists tr, res = GOk (W (ev_print :: tr), (true, None)) /\ abs tr = s
      | (s, IStray _, _) => res = GPanic \/ exists tr, res = GOk (W (ev_print :: tr), (true, None)) /\ abs tr = s
      | (s, r, _) => exists tr, res = GOk (W tr, (true, err_of r)) /\ abs tr = s
      end
  | (PMissing, _, _) | (PMapErr, _, _) => exists tr, res = GOk (W tr, (false, None)) /\ abs tr = state0
  | (PStray _, _, _) => res = GPanic
  | (PFuel, _, _) => False
  end.

Theorem probe_then_init_is_translation :
  forall (m : mem) (low hi align : N) (pfail : option N) (fail : N -> bool) (fuel : nat),
  bytes_ok m -> low < two64 -> 0 < align -> hi + align <= two64 ->
  (N.to_nat (locate_fuel low hi align) < fuel)%nat -> (N.to_nat two32 <= fuel)%nat ->
  pti_ok (probe_then_init fuel [] (ld_of m) align hi low (o_map pfail 0) (o_idmap fail)) m fail
         (locateRSDT m low hi align pfail).
Proof.
  intros m low hi align pfail fail fuel Hok Hlow Hal Hhi Hf1 Hf2. unfold probe_then_init.
  change (o_map pfail 0) with (o_map pfail (List.length (@nil gcall))).
  rewrite (probe_is_translation m low hi align pfail [] fuel Hok Hlow Hal Hhi Hf1).
  destruct (locateRSDT m low hi align pfail) as [[pr nmap] nunmap] eqn:Hl. unfold probe_result.
  set (tr := evs ev_unmapfn (page_of low) 0 (N.to_nat nunmap) ++ evs ev_mapfn (page_of low) 0 (N.to_nat nmap) ++ []).
  assert (HI : Inv tr state0).
  { unfold tr. apply Inv_app_other; [apply evs_other; intros p; split; [intros s|]; reflexivity|].
    apply Inv_app_other; [apply evs_other; intros p; split; [intros s|]; reflexivity|]. split; reflexivity. }
  destruct pr as [root x| | |a|]; cbn [pti_ok].
  - assert (Hroot : root < two64) by (eapply locate_found_lt; eassumption).
    pose proof (driverInit_is_translation_from m fail root x fuel tr Hok Hroot Hf2 HI) as Hd.
    destruct (driverInit m fail root x) as [[s r] info]. destruct r as [| | |a]; cbn [init_ok] in Hd.
    + destruct Hd as (tr' & -> & Ha). exists tr'. split; [reflexivity|exact Ha].
    + destruct Hd as (tr' & -> & Ha). exists tr'. split; [reflexivity|exact Ha].
    + destruct Hd as (tr' & -> & Ha). exists tr'. split; [reflexivity|exact Ha].
    + destruct Hd as [->|(tr' & -> & Ha)]; [left; reflexivity|right; exists tr'; split; [reflexivity|exact Ha]].
  - exists tr. split; [reflexivity|exact (proj1 HI)].
  - exists tr. split; [reflexivity|exact (proj1 HI)].
  - reflexivity.
  - (* PFuel is impossible under the hypotheses *)
    pose proof (scan_is_translation m [] low hi align fuel Hok Hlow Hal Hhi) as Hs.
    destruct (locate_scan _ _ _ _ _ _ _ _ Hl) as [Hsc|Hsc]; [discriminate Hsc|].
    unfold locate_fuel in Hf1. rewrite <- Hsc in Hs. apply Hs.
    + revert Hf1. generalize (npages_of low hi) ((hi - low) / align) slot_fuel. intros; lia.
    + revert Hf1. generalize (npages_of low hi) ((hi - low) / align) slot_fuel. intros; lia.
Qed.
