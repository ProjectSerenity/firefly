(** Consequences of the walk: what ends up in tableMap, what is reported. *)
From Coq Require Import NArith ZArith Lia List Bool.
From FF Require Import Lib.Word Gen.Consts_device_acpi Acpi.Model Acpi.Spec Acpi.BytesProofs Acpi.EnumProofs Acpi.AbortProofs.
Import ListNotations.
Local Open Scope N_scope.

Lemma candidate_cons m rev t0 es t : candidate m rev es t -> candidate m rev (t0 :: es) t.
Proof.
  intros [H | (f & Hf & Hrest)]; [left; right; exact H | right; exists f; split; [right; exact Hf | exact Hrest]].
Qed.

Lemma candidate_inv m rev t0 es t : candidate m rev (t0 :: es) t ->
  t = t0 \/ (tbl_good m t0 /\ tbl_sig m t0 FACP /\ fadt_dsdt m rev t0 t) \/ candidate m rev es t.
Proof.
  intros [[->|H] | (f & [->|Hf] & Hrest)]; auto.
  - right. right. left. exact H.
  - right. right. right. exists f. auto.
Qed.

Lemma regs_sound m rev es vs ev regs : walk m rev es vs ev regs ->
  forall s t, In (s, t) regs -> candidate m rev es t /\ tbl_sig m t s /\ tbl_good m t.
Proof.
  intros H. induction H as [| t0 len sg es vs ev regs Hb Hsg Hw IH | t0 sg es vs ev regs Hg Hsg Hne Hw IH
                 | f d sd es vs ev regs Hg Hsg Hd Hgd Hsd Hw IH | f d sd len es vs ev regs Hg Hsg Hd Hbd Hsd Hw IH];
    intros s t Hin.
  - destruct Hin.
  - destruct (IH s t Hin) as (Hc & Hr). split; [apply candidate_cons; exact Hc | exact Hr].
  - destruct Hin as [Heq | Hin].
    + injection Heq as <- <-. split; [left; left; reflexivity | auto].
    + destruct (IH s t Hin) as (Hc & Hr). split; [apply candidate_cons; exact Hc | exact Hr].
  - destruct Hin as [Heq | [Heq | Hin]].
    + injection Heq as <- <-. split; [left; left; reflexivity | auto].
    + injection Heq as <- <-. split; [right; exists f; split; [left; reflexivity | auto] | auto].
    + destruct (IH s t Hin) as (Hc & Hr). split; [apply candidate_cons; exact Hc | exact Hr].
  - destruct Hin as [Heq | Hin].
    + injection Heq as <- <-. split; [left; left; reflexivity | auto].
    + destruct (IH s t Hin) as (Hc & Hr). split; [apply candidate_cons; exact Hc | exact Hr].
Qed.

Lemma regs_complete m rev es vs ev regs : walk m rev es vs ev regs ->
  forall s t, candidate m rev es t -> tbl_sig m t s -> tbl_good m t -> In (s, t) regs.
Proof.
  intros H. induction H as [| t0 len sg es vs ev regs Hb Hsg Hw IH | t0 sg es vs ev regs Hg Hsg Hne Hw IH
                 | f d sd es vs ev regs Hg Hsg Hd Hgd Hsd Hw IH | f d sd len es vs ev regs Hg Hsg Hd Hbd Hsd Hw IH];
    intros s t Hc Hs Hgt.
  - destruct Hc as [[] | (f & [] & _)].
  - apply candidate_inv in Hc. destruct Hc as [-> | [(Hg0 & _) | Hc]].
    + exfalso. exact (good_bad_excl _ _ _ Hgt Hb).
    + exfalso. exact (good_bad_excl _ _ _ Hg0 Hb).
    + eapply IH; eauto.
  - apply candidate_inv in Hc. destruct Hc as [-> | [(_ & Hf & _) | Hc]].
    + left. f_equal. eapply field_fun; eauto.
    + exfalso. apply Hne. eapply FACP_sig; eauto.
    + right. eapply IH; eauto.
  - apply candidate_inv in Hc. destruct Hc as [-> | [(_ & _ & Hd') | Hc]].
    + left. f_equal. symmetry. eapply FACP_sig; eauto.
    + right. left. rewrite (fadt_dsdt_fun _ _ _ _ _ Hd' Hd) in *. f_equal. eapply field_fun; eauto.
    + right. right. eapply IH; eauto.
  - apply candidate_inv in Hc. destruct Hc as [-> | [(_ & _ & Hd') | Hc]].
    + left. f_equal. symmetry. eapply FACP_sig; eauto.
    + exfalso. rewrite (fadt_dsdt_fun _ _ _ _ _ Hd' Hd) in *. eapply good_bad_excl; eauto.
    + right. eapply IH; eauto.
Qed.

Lemma lookup_in s t l : lookup s l = Some t -> In (s, t) l.
Proof.
  induction l as [|[k v] r IH]; simpl; [discriminate|].
  destruct (N.eqb_spec k s) as [->|Hne]; intros H; [injection H as ->; left; reflexivity | right; auto].
Qed.

Lemma in_lookup s t l : (forall t', In (s, t') l -> t' = t) -> In (s, t) l -> lookup s l = Some t.
Proof.
  induction l as [|[k v] r IH]; simpl; intros Hfun Hin; [contradiction|].
  destruct (N.eqb_spec k s) as [->|Hne].
  - f_equal. apply Hfun. left. reflexivity.
  - destruct Hin as [Heq|Hin]; [congruence|]. apply IH; auto.
Qed.

Theorem registered_iff m rev es vs ev regs :
  walk m rev es vs ev regs -> distinct_signatures m rev es ->
  forall s t, lookup s (List.rev regs) = Some t <->
              (candidate m rev es t /\ tbl_sig m t s /\ tbl_good m t).
Proof.
  intros Hw Hd s t. split.
  - intros H. apply lookup_in, in_rev in H. eapply regs_sound; eauto.
  - intros (Hc & Hs & Hg). apply in_lookup.
    + intros t' Hin. apply in_rev in Hin. destruct (regs_sound _ _ _ _ _ _ Hw _ _ Hin) as (Hc' & Hs' & _).
      eapply Hd; eauto.
    + apply -> in_rev. eapply regs_complete; eauto.
Qed.

(** without the distinctness assumption: nothing but checksum-valid candidates is ever registered *)
Theorem registered_only_valid m rev es vs ev regs :
  walk m rev es vs ev regs ->
  forall s t, lookup s (List.rev regs) = Some t -> candidate m rev es t /\ tbl_sig m t s /\ tbl_good m t.
Proof. intros Hw s t H. apply lookup_in, in_rev in H. eapply regs_sound; eauto. Qed.

(** ---- reports ---- *)
Lemma events_sound m rev es vs ev regs : walk m rev es vs ev regs ->
  forall e, In e ev -> exists s len, e = EvMismatch s (ev_addr e) len /\ In (ev_addr e) vs /\
                                      tbl_bad m (ev_addr e) len /\ tbl_sig m (ev_addr e) s.
Proof.
  intros H. induction H as [| t0 len sg es vs ev regs Hb Hsg Hw IH | t0 sg es vs ev regs Hg Hsg Hne Hw IH
                 | f d sd es vs ev regs Hg Hsg Hd Hgd Hsd Hw IH | f d sd len es vs ev regs Hg Hsg Hd Hbd Hsd Hw IH];
    intros e Hin.
  - destruct Hin.
  - destruct Hin as [<- | Hin].
    + exists sg, len. simpl. auto.
    + destruct (IH e Hin) as (s & l & He & Hv & Hr). exists s, l. split; [exact He|]. split; [right; exact Hv | exact Hr].
  - destruct (IH e Hin) as (s & l & He & Hv & Hr). exists s, l. split; [exact He|]. split; [right; exact Hv | exact Hr].
  - destruct (IH e Hin) as (s & l & He & Hv & Hr). exists s, l. split; [exact He|]. split; [right; right; exact Hv | exact Hr].
  - destruct Hin as [<- | Hin].
    + exists sd, len. simpl. auto.
    + destruct (IH e Hin) as (s & l & He & Hv & Hr). exists s, l. split; [exact He|]. split; [right; right; exact Hv | exact Hr].
Qed.

Lemma events_complete m rev es vs ev regs : walk m rev es vs ev regs ->
  forall t len, In t vs -> tbl_bad m t len -> In t (map ev_addr ev).
Proof.
  intros H. induction H as [| t0 len0 sg es vs ev regs Hb Hsg Hw IH | t0 sg es vs ev regs Hg Hsg Hne Hw IH
                 | f d sd es vs ev regs Hg Hsg Hd Hgd Hsd Hw IH | f d sd len0 es vs ev regs Hg Hsg Hd Hbd Hsd Hw IH];
    intros t len Hin Hb'.
  - destruct Hin.
  - destruct Hin as [<- | Hin]; [left; reflexivity | right; eapply IH; eauto].
  - destruct Hin as [<- | Hin]; [exfalso; eauto using good_bad_excl | eapply IH; eauto].
  - destruct Hin as [<- | [<- | Hin]]; [exfalso; eauto using good_bad_excl | exfalso; eauto using good_bad_excl | eapply IH; eauto].
  - destruct Hin as [<- | [<- | Hin]]; [exfalso; eauto using good_bad_excl | left; reflexivity | right; eapply IH; eauto].
Qed.

Lemma events_addr_visited m rev es vs ev regs : walk m rev es vs ev regs ->
  forall a, In a (map ev_addr ev) -> In a vs.
Proof.
  intros Hw a Hin. apply in_map_iff in Hin. destruct Hin as (e & <- & He).
  destruct (events_sound _ _ _ _ _ _ Hw e He) as (_ & _ & _ & Hv & _). exact Hv.
Qed.

Lemma events_nodup m rev es vs ev regs : walk m rev es vs ev regs ->
  NoDup vs -> NoDup (map ev_addr ev).
Proof.
  intros H. induction H as [| t0 len0 sg es vs ev regs Hb Hsg Hw IH | t0 sg es vs ev regs Hg Hsg Hne Hw IH
                 | f d sd es vs ev regs Hg Hsg Hd Hgd Hsd Hw IH | f d sd len0 es vs ev regs Hg Hsg Hd Hbd Hsd Hw IH];
    intros Hnd.
  - constructor.
  - inversion Hnd; subst. simpl. constructor; [|auto].
    intros Hin. eapply events_addr_visited in Hin; eauto.
  - inversion Hnd; subst. auto.
  - inversion Hnd as [|? ? ? Hnd']; subst. inversion Hnd'; subst. auto.
  - inversion Hnd as [|? ? Hnf Hnd']; subst. inversion Hnd' as [|? ? Hnd0 Hnd'']; subst. simpl. constructor; [|auto].
    intros Hin. eapply events_addr_visited in Hin; eauto.
Qed.

Lemma visited_iff_candidate m rev es vs ev regs : walk m rev es vs ev regs ->
  forall t, In t vs <-> candidate m rev es t.
Proof.
  intros H. induction H as [| t0 len0 sg es vs ev regs Hb Hsg Hw IH | t0 sg es vs ev regs Hg Hsg Hne Hw IH
                 | f d sd es vs ev regs Hg Hsg Hd Hgd Hsd Hw IH | f d sd len0 es vs ev regs Hg Hsg Hd Hbd Hsd Hw IH];
    intros t.
  - split; [intros [] | intros [[] | (f & [] & _)]].
  - split.
    + intros [<- | Hin]; [left; left; reflexivity | apply candidate_cons, IH; exact Hin].
    + intros Hc. apply candidate_inv in Hc. destruct Hc as [-> | [(Hg0 & _) | Hc]];
        [left; reflexivity | exfalso; eauto using good_bad_excl | right; apply IH; exact Hc].
  - split.
    + intros [<- | Hin]; [left; left; reflexivity | apply candidate_cons, IH; exact Hin].
    + intros Hc. apply candidate_inv in Hc. destruct Hc as [-> | [(_ & Hf & _) | Hc]];
        [left; reflexivity | exfalso; apply Hne; eapply FACP_sig; eauto | right; apply IH; exact Hc].
  - split.
    + intros [<- | [<- | Hin]]; [left; left; reflexivity | right; exists f; split; [left; reflexivity | auto] | apply candidate_cons, IH; exact Hin].
    + intros Hc. apply candidate_inv in Hc. destruct Hc as [-> | [(_ & _ & Hd') | Hc]];
        [left; reflexivity | right; left; eapply fadt_dsdt_fun; eauto | right; right; apply IH; exact Hc].
  - split.
    + intros [<- | [<- | Hin]]; [left; left; reflexivity | right; exists f; split; [left; reflexivity | auto] | apply candidate_cons, IH; exact Hin].
    + intros Hc. apply candidate_inv in Hc. destruct Hc as [-> | [(_ & _ & Hd') | Hc]];
        [left; reflexivity | right; left; eapply fadt_dsdt_fun; eauto | right; right; apply IH; exact Hc].
Qed.

Theorem mismatch_reports m rev es vs ev regs : walk m rev es vs ev regs ->
  (forall t, In t vs <-> candidate m rev es t) /\
  (forall e, In e ev -> exists s len, e = EvMismatch s (ev_addr e) len /\ In (ev_addr e) vs /\
                                       tbl_bad m (ev_addr e) len /\ tbl_sig m (ev_addr e) s) /\
  (forall t len, In t vs -> tbl_bad m t len -> In t (map ev_addr ev)) /\
  (NoDup vs -> NoDup (map ev_addr ev)).
Proof.
  intros Hw. split; [eapply visited_iff_candidate; eauto|]. split; [eapply events_sound; eauto|].
  split; [eapply events_complete; eauto | eapply events_nodup; eauto].
Qed.

(** ---- DriverInit ---- *)
(** a seam failure aborts DriverInit with the mapping error (never IOk) *)
Lemma seam_failure_first_call m fail root useX :
  fail 0 = true -> snd (enumerateTables m fail root useX) = IErrMap.
Proof.
  intros Hf. unfold enumerateTables, mapACPITable, idmap.
  change (sk (st_seam state0)) with 0. rewrite Hf. reflexivity.
Qed.

(** everything the C14 property says about a successful DriverInit, in one statement *)
Theorem driverInit_registered m fail root useX s info :
  bytes_ok m -> root < two64 -> no_seam_failure fail ->
  (forall len, tbl_len m root len -> 36 <= len) ->
  driverInit m fail root useX = (s, IOk, info) ->
  exists len rootRev es vs ev,
    (* the root table is checksum-valid and lists es *)
    tbl_len m root len /\ sums_to_zero m root len /\ m (w64 (root + 8)) = Some rootRev /\
    root_lists m root len useX es /\
    (* registered iff candidate and checksum-valid *)
    (forall sg t, lookup sg (st_tmap s) = Some t -> candidate m rootRev es t /\ tbl_sig m t sg /\ tbl_good m t) /\
    (distinct_signatures m rootRev es ->
       forall sg t, lookup sg (st_tmap s) = Some t <-> (candidate m rootRev es t /\ tbl_sig m t sg /\ tbl_good m t)) /\
    (* every candidate is visited; a report is a bad candidate; every bad candidate is reported; once *)
    st_events s = List.rev ev /\
    (forall t, In t vs <-> candidate m rootRev es t) /\
    (forall e, In e ev -> exists sg len, e = EvMismatch sg (ev_addr e) len /\ In (ev_addr e) vs /\
                                          tbl_bad m (ev_addr e) len /\ tbl_sig m (ev_addr e) sg) /\
    (forall t len, In t vs -> tbl_bad m t len -> In t (map ev_addr ev)) /\
    (NoDup vs -> NoDup (map ev_addr ev)).
Proof.
  intros Hok Hroot Hf H36 Hd. apply driverInit_ok in Hd.
  destruct (enumerate_sound m fail root useX s Hok Hroot Hd) as (len & rv & es & vs & ev & regs & Hl & Hz & Hrv & Hrl & Hw & Hev & Htm).
  exists len, rv, es, vs, ev. rewrite Htm.
  destruct (mismatch_reports m rv es vs ev regs Hw) as (M1 & M2 & M3 & M4).
  split; [exact Hl|]. split; [exact Hz|]. split; [exact Hrv|]. split; [apply Hrl; auto|].
  split; [apply (registered_only_valid m rv es vs ev regs Hw)|].
  split; [intros Hdist; apply (registered_iff m rv es vs ev regs Hw Hdist)|].
  split; [exact Hev|]. split; [exact M1|]. split; [exact M2|]. split; [exact M3 | exact M4].
Qed.
