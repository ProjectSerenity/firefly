(** Lemmas about the iteration combinator, raw reads and validTable of Acpi/Model.v. *)
From Coq Require Import NArith ZArith Lia List Bool.
From Coq Require Import ZifyBool ZifyN ZifyNat.
From FF Require Import Lib.Word Gen.Consts_device_acpi Acpi.Model Acpi.Spec.
Import ListNotations.
Local Open Scope N_scope.

(** ---- iter_N ---- *)
Section IterFacts.
  Context {S E : Type} (step : S -> S + E).

  Definition bindS (r : S + E) (f : S -> S + E) : S + E :=
    match r with inl s => f s | inr e => inr e end.

  Lemma bindS_ext r f g : (forall s, f s = g s) -> bindS r f = bindS r g.
  Proof. intros H; destruct r; simpl; auto. Qed.

  Lemma bindS_assoc r f g : bindS (bindS r f) g = bindS r (fun s => bindS (f s) g).
  Proof. destruct r; reflexivity. Qed.

  Lemma iter_pos_xO q s : iter_pos step (xO q) s = bindS (iter_pos step q s) (iter_pos step q).
  Proof. reflexivity. Qed.

  Lemma iter_pos_xI q s : iter_pos step (xI q) s = bindS (step s) (iter_pos step (xO q)).
  Proof. simpl. destruct (step s); reflexivity. Qed.

  Lemma swap_xO q :
    (forall s, bindS (iter_pos step q s) step = bindS (step s) (iter_pos step q)) ->
    forall s, bindS (iter_pos step (xO q) s) step = bindS (step s) (iter_pos step (xO q)).
  Proof.
    intros IH s. rewrite iter_pos_xO, bindS_assoc.
    rewrite (bindS_ext _ _ (fun s' => bindS (step s') (iter_pos step q))) by (intros; apply IH).
    rewrite <- bindS_assoc, IH, bindS_assoc. apply bindS_ext. intros s1. reflexivity.
  Qed.

  Lemma iter_pos_swap p : forall s, bindS (iter_pos step p s) step = bindS (step s) (iter_pos step p).
  Proof.
    induction p as [q IH | q IH | ]; intros s.
    - rewrite iter_pos_xI, bindS_assoc.
      rewrite (bindS_ext _ _ (fun s1 => bindS (step s1) (iter_pos step (xO q)))) by (intros; apply swap_xO, IH).
      apply bindS_ext. intros s1. rewrite iter_pos_xI. reflexivity.
    - apply swap_xO, IH.
    - reflexivity.
  Qed.

  Lemma iter_pos_succ p : forall s, iter_pos step (Pos.succ p) s = bindS (step s) (iter_pos step p).
  Proof.
    induction p as [q IH | q IH | ]; intros s.
    - (* succ (xI q) = xO (succ q) *)
      change (Pos.succ (xI q)) with (xO (Pos.succ q)).
      rewrite iter_pos_xO, IH, bindS_assoc.
      rewrite (bindS_ext _ _ (fun s1 => bindS (step s1) (iter_pos step (xO q)))).
      + apply bindS_ext. intros s1. rewrite iter_pos_xI. reflexivity.
      + intros s1.
        rewrite (bindS_ext _ _ (fun s' => bindS (step s') (iter_pos step q))) by (intros; apply IH).
        rewrite <- bindS_assoc, (iter_pos_swap q s1), bindS_assoc. reflexivity.
    - change (Pos.succ (xO q)) with (xI q). apply iter_pos_xI.
    - reflexivity.
  Qed.

  Lemma iter_N_0 s : iter_N step 0 s = inl s.
  Proof. reflexivity. Qed.

  Lemma iter_N_succ n s : iter_N step (N.succ n) s = bindS (step s) (iter_N step n).
  Proof.
    destruct n as [|p]; simpl.
    - destruct (step s); reflexivity.
    - apply iter_pos_succ.
  Qed.
End IterFacts.

(** ---- addresses and bytes ---- *)
Lemma w64_add_add a i j : w64 (w64 (a + i) + j) = w64 (a + (i + j)).
Proof. unfold w64. rewrite N.add_mod_idemp_l by (unfold two64; lia). f_equal. lia. Qed.

Lemma w64_id a : a < two64 -> w64 a = a.
Proof. apply w64_small. Qed.

Lemma w64_add0 a : a < two64 -> w64 (a + 0) = a.
Proof. intros. rewrite N.add_0_r. apply w64_small; assumption. Qed.

Lemma bytes_at_nth m : forall bs a, bytes_at m a bs -> a < two64 ->
  forall i, (i < length bs)%nat -> m (w64 (a + N.of_nat i)) = Some (nth i bs 0).
Proof.
  induction bs as [|b r IH]; intros a H Ha i Hi; simpl in *. { lia. }
  destruct H as [H0 H1]. destruct i as [|i].
  - simpl. rewrite w64_add0 by assumption. assumption.
  - specialize (IH _ H1 (w64_lt _) i ltac:(lia)). rewrite w64_add_add in IH.
    replace (a + N.of_nat (S i)) with (a + (1 + N.of_nat i)) by lia. exact IH.
Qed.

Lemma bytes_at_skipn m : forall k bs a, bytes_at m a bs -> a < two64 ->
  bytes_at m (w64 (a + N.of_nat k)) (skipn k bs).
Proof.
  induction k as [|k IH]; intros bs a H Ha.
  - simpl. rewrite w64_add0 by assumption. assumption.
  - destruct bs as [|b r]; simpl. { exact I. }
    destruct H as [_ H1]. specialize (IH _ _ H1 (w64_lt _)). rewrite w64_add_add in IH.
    replace (a + N.pos (Pos.of_succ_nat k)) with (a + (1 + N.of_nat k)) by lia. exact IH.
Qed.

Lemma bytes_at_firstn m : forall k bs a, bytes_at m a bs -> bytes_at m a (firstn k bs).
Proof.
  induction k as [|k IH]; intros bs a H; simpl. { exact I. }
  destruct bs as [|b r]; simpl in *. { exact I. }
  destruct H as [H0 H1]. split; auto.
Qed.

Lemma bytes_at_prefix m : forall l1 l2 a, bytes_at m a l1 -> bytes_at m a l2 ->
  (length l1 <= length l2)%nat -> l1 = firstn (length l1) l2.
Proof.
  induction l1 as [|b r IH]; intros l2 a H1 H2 Hl; simpl in *. { reflexivity. }
  destruct l2 as [|b2 r2]; simpl in *. { lia. }
  destruct H1 as [Ha Hr], H2 as [Ha2 Hr2]. rewrite Ha in Ha2. injection Ha2 as <-.
  f_equal. eapply IH; eauto. lia.
Qed.

Lemma bytes_at_inj m l1 l2 a : bytes_at m a l1 -> bytes_at m a l2 -> length l1 = length l2 -> l1 = l2.
Proof.
  intros H1 H2 Hl. rewrite (bytes_at_prefix m l1 l2 a H1 H2) by lia.
  rewrite Hl. apply firstn_all.
Qed.

Lemma bytes_at_app m : forall l1 l2 a, a < two64 ->
  bytes_at m a (l1 ++ l2) <-> bytes_at m a l1 /\ bytes_at m (w64 (a + N.of_nat (length l1))) l2.
Proof.
  induction l1 as [|b r IH]; intros l2 a Ha; simpl.
  - rewrite w64_add0 by assumption. tauto.
  - rewrite (IH l2 (w64 (a + 1)) (w64_lt _)), w64_add_add.
    replace (a + N.pos (Pos.of_succ_nat (length r))) with (a + (1 + N.of_nat (length r))) by lia. tauto.
Qed.

Lemma le_bytes_lt m : bytes_ok m -> forall bs a, bytes_at m a bs -> le_bytes bs < 256 ^ N.of_nat (length bs).
Proof.
  intros Hok. induction bs as [|b r IH]; intros a H. { simpl. lia. }
  destruct H as [H0 H1]. specialize (IH _ H1). apply Hok in H0.
  change (length (b :: r)) with (S (length r)). rewrite Nat2N.inj_succ, N.pow_succ_r'.
  change (le_bytes (b :: r)) with (b + le_bytes r * 256). lia.
Qed.

(** ---- rdle ---- *)
Lemma rdle_spec m : forall n a v, rdle m a n = Got v <-> field m a n v.
Proof.
  unfold field. induction n as [|n IH]; intros a v; simpl.
  - split.
    + intros H. injection H as <-. exists []. simpl. auto.
    + intros (bs & Hl & _ & ->). destruct bs; simpl in *; [reflexivity | lia].
  - destruct (m a) as [b|] eqn:Hb.
    + destruct (rdle m (w64 (a + 1)) n) as [r|x] eqn:Hr.
      * apply IH in Hr. destruct Hr as (bs & Hl & Hbs & ->). split.
        -- intros H. injection H as <-. exists (b :: bs). simpl. auto.
        -- intros (bs' & Hl' & Hbs' & ->). destruct bs' as [|b' r']; simpl in *; [lia|].
           destruct Hbs' as [Hb' Hr']. rewrite Hb in Hb'. injection Hb' as <-.
           rewrite (bytes_at_inj m bs r' _ Hbs Hr') by lia. reflexivity.
      * split; [discriminate|]. intros (bs' & Hl' & Hbs' & ->).
        destruct bs' as [|b' r']; simpl in *; [lia|]. destruct Hbs' as [_ Hr'].
        assert (Hx : rdle m (w64 (a + 1)) n = Got (le_bytes r')) by (apply IH; exists r'; auto with arith).
        rewrite Hr in Hx. discriminate.
    + split; [discriminate|]. intros (bs' & Hl' & Hbs' & ->).
      destruct bs' as [|b' r']; simpl in *; [lia|]. destruct Hbs' as [Hb' _]. rewrite Hb in Hb'. discriminate.
Qed.

Lemma rd8_spec m a v : rd8 m a = Got v <-> m a = Some v.
Proof. unfold rd8. destruct (m a); split; intros H; inversion H; reflexivity. Qed.

Lemma field_lt m a n v : bytes_ok m -> field m a n v -> v < 256 ^ N.of_nat n.
Proof. intros Hok (bs & <- & Hb & ->). eapply le_bytes_lt; eauto. Qed.

Lemma field_lt64 m a n v : bytes_ok m -> (n <= 8)%nat -> field m a n v -> v < two64.
Proof.
  intros Hok Hn H. apply (field_lt m a n v Hok) in H.
  eapply N.lt_le_trans; [exact H|]. change two64 with (256 ^ 8). apply N.pow_le_mono_r; lia.
Qed.

Lemma rdle_lt m : bytes_ok m -> forall n a v, rdle m a n = Got v -> v < 256 ^ N.of_nat n.
Proof. intros Hok n a v H. apply (field_lt m a n v Hok), rdle_spec, H. Qed.

Lemma rdle_lt64 m n a v : bytes_ok m -> (n <= 8)%nat -> rdle m a n = Got v -> v < two64.
Proof. intros Hok Hn H. apply (field_lt64 m a n v Hok Hn), rdle_spec, H. Qed.

(** ---- validTable ---- *)
Lemma w8_add_idem s b : w8 (w8 s + b) = w8 (s + b).
Proof. unfold w8. apply N.add_mod_idemp_l. unfold two8. lia. Qed.

Lemma w8_lt x : w8 x < 256.
Proof. unfold w8, two8. apply N.mod_lt. lia. Qed.

Lemma sum_iter_ok m : forall bs a s, s < 256 -> bytes_at m a bs ->
  exists a', iter_N (sum_step m) (N.of_nat (length bs)) (a, s) = inl (a', w8 (s + sum8 bs)).
Proof.
  induction bs as [|b r IH]; intros a s Hs H.
  - exists a. simpl. rewrite N.add_0_r. unfold w8, two8. rewrite N.mod_small by lia. reflexivity.
  - simpl in H. destruct H as [H0 H1].
    change (length (b :: r)) with (S (length r)). rewrite Nat2N.inj_succ.
    rewrite iter_N_succ. unfold sum_step at 1. rewrite H0. simpl bindS.
    destruct (IH (w64 (a + 1)) (w8 (s + b)) (w8_lt _) H1) as (a' & Hi).
    exists a'. rewrite Hi. f_equal. f_equal. rewrite w8_add_idem.
    change (sum8 (b :: r)) with (b + sum8 r). f_equal. lia.
Qed.

Lemma sum_iter_ok0 m bs a : bytes_at m a bs ->
  exists a', iter_N (sum_step m) (N.of_nat (length bs)) (a, 0) = inl (a', w8 (sum8 bs)).
Proof. intros H. apply (sum_iter_ok m bs a 0); [lia | exact H]. Qed.

Lemma sum_iter_inv m : forall n a s a' s', iter_N (sum_step m) n (a, s) = inl (a', s') ->
  exists bs, N.of_nat (length bs) = n /\ bytes_at m a bs.
Proof.
  induction n as [|n IH] using N.peano_ind; intros a s a' s' H.
  - exists []. simpl. auto.
  - rewrite iter_N_succ in H. unfold sum_step at 1 in H. destruct (m a) as [b|] eqn:Hb; simpl in H; [|discriminate].
    destruct (IH _ _ _ _ H) as (bs & Hl & Hbs). exists (b :: bs). simpl. split; [lia | auto].
Qed.

Lemma validTable_got m a len v :
  validTable m a len = Got v <->
  exists bs, N.of_nat (length bs) = len /\ bytes_at m a bs /\ v = (sum8 bs mod 256 =? 0).
Proof.
  unfold validTable. split.
  - destruct (iter_N (sum_step m) len (a, 0)) as [[a' s']|x] eqn:Hi; [|discriminate].
    intros H. injection H as <-.
    destruct (sum_iter_inv _ _ _ _ _ _ Hi) as (bs & Hl & Hbs). exists bs. repeat split; auto.
    destruct (sum_iter_ok0 m bs a Hbs) as (a'' & Hi'). rewrite Hl, Hi in Hi'. injection Hi' as _ ->. reflexivity.
  - intros (bs & Hl & Hbs & ->). destruct (sum_iter_ok0 m bs a Hbs) as (a'' & Hi'). rewrite Hl in Hi'. rewrite Hi'. reflexivity.
Qed.

Lemma validTable_true m a len : validTable m a len = Got true <-> sums_to_zero m a len.
Proof.
  rewrite validTable_got. unfold sums_to_zero. split; intros (bs & Hl & Hbs & H); exists bs; repeat split; auto.
  - symmetry in H. apply N.eqb_eq in H. exact H.
  - symmetry. apply N.eqb_eq. exact H.
Qed.

Lemma validTable_false m a len : validTable m a len = Got false <-> sums_to_nonzero m a len.
Proof.
  rewrite validTable_got. unfold sums_to_nonzero. split; intros (bs & Hl & Hbs & H); exists bs; repeat split; auto.
  - symmetry in H. apply N.eqb_neq in H. exact H.
  - symmetry. apply N.eqb_neq. exact H.
Qed.
