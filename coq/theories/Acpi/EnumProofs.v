(** mapACPITable / enumerateTables: the vocabulary of Acpi/Spec.v against the model's reads, and the enumeration of a
    given [walk] (what it finds in an image is in AbortProofs.v). *)
From Coq Require Import NArith ZArith Lia List Bool.
From Coq Require Import ZifyBool ZifyN ZifyNat.
From FF Require Import Lib.Word Gen.Consts_device_acpi Acpi.Model Acpi.Spec Acpi.BytesProofs.
Import ListNotations.
Local Open Scope N_scope.

(** Obligations on the regenerated constants. *)
Lemma consts_sdt :
  acpi_sizeof_SDTHeader = 36 /\ acpi_off_SDT_Signature = 0 /\ acpi_sizeof_SDT_Signature = 4 /\
  acpi_off_SDT_Length = 4 /\ acpi_sizeof_SDT_Length = 4 /\ acpi_off_SDT_Revision = 8 /\
  acpi_fadtSignature = FACP /\ acpi_acpiRev2Plus = 2 /\
  acpi_sizeof_FADT_Dsdt = 4 /\ acpi_sizeof_FADT_Ext_Dsdt = 8 /\
  acpi_mm_PageSize = 2 ^ acpi_mm_PageShift /\ acpi_vmm_PageOffsetMask = acpi_mm_PageSize - 1.
Proof. repeat split; reflexivity. Qed.

(** ---- determinism of the declarative vocabulary ---- *)
Lemma field_fun m a n v1 v2 : field m a n v1 -> field m a n v2 -> v1 = v2.
Proof.
  intros (b1 & L1 & B1 & ->) (b2 & L2 & B2 & ->). f_equal. eapply bytes_at_inj; eauto. congruence.
Qed.

Lemma FACP_sig m t s : tbl_sig m t FACP -> tbl_sig m t s -> s = FACP.
Proof. intros H1 H2. eapply field_fun; eauto. Qed.

Lemma field4_lt m a v : bytes_ok m -> field m a 4 v -> v < two32.
Proof. intros Hok H. apply (field_lt m a 4 v Hok) in H. exact H. Qed.

Lemma zero_nonzero_excl m a len : sums_to_zero m a len -> sums_to_nonzero m a len -> False.
Proof.
  intros (b1 & L1 & B1 & S1) (b2 & L2 & B2 & S2).
  assert (b1 = b2) by (eapply bytes_at_inj; eauto; lia). subst. contradiction.
Qed.

Lemma good_bad_excl m t len : tbl_good m t -> tbl_bad m t len -> False.
Proof.
  intros (l0 & Hl0 & Hz) (Hl & Hnz). unfold tbl_len in *.
  rewrite (field_fun _ _ _ _ _ Hl0 Hl) in Hz. eapply zero_nonzero_excl; eauto.
Qed.

Lemma fadt_dsdt_fun m rev f d1 d2 : fadt_dsdt m rev f d1 -> fadt_dsdt m rev f d2 -> d1 = d2.
Proof.
  intros [[H1 F1]|[H1 [_ F1]]] [[H2 F2]|[H2 [_ F2]]]; try lia; eapply field_fun; eauto.
Qed.

Lemma fadt_dsdt_lt m rev f d : bytes_ok m -> fadt_dsdt m rev f d -> d < two64.
Proof.
  intros Hok [[_ F]|[_ [_ F]]]; (eapply field_lt64; [exact Hok | | exact F]; lia).
Qed.

(** ---- mapACPITable ---- *)
Lemma hpa_identity t : t < two64 ->
  w64 (w64 (N.shiftl (page_of t) PageShift) + N.land t acpi_vmm_PageOffsetMask) = t.
Proof.
  intros Ht. unfold page_of, PageSize, PageShift.
  (* the page constants are 2^12 and its mask ([consts_sdt]) *)
  change (acpi_mm_PageSize - 1) with (2 ^ 12 - 1). change acpi_mm_PageShift with 12.
  change acpi_vmm_PageOffsetMask with (2 ^ 12 - 1).
  rewrite andnot_pow2, land_ones_mod, N.shiftr_div_pow2, N.shiftl_mul_pow2.
  change (2 ^ 12) with 4096.
  assert (H1 : (t - t mod 4096) / 4096 * 4096 = t - t mod 4096) by lia.
  rewrite H1. rewrite (w64_small (t - t mod 4096)) by lia.
  replace (t - t mod 4096 + t mod 4096) with t by lia. apply w64_small. exact Ht.
Qed.

Lemma map_complete m fail s t len (good : bool) : no_seam_failure fail -> t < two64 ->
  tbl_len m t len -> validTable m t len = Got good ->
  exists s', mapACPITable m fail s t = (s', if good then MOk t len else MMismatch t len).
Proof.
  intros Hf Ht Hl Hv. unfold mapACPITable, idmap. rewrite !Hf. simpl negb. cbv iota.
  rewrite (hpa_identity t Ht).
  change acpi_off_SDT_Length with 4. change (N.to_nat acpi_sizeof_SDT_Length) with 4%nat.
  apply rdle_spec in Hl. rewrite Hl, Hv. destruct good; eexists; reflexivity.
Qed.

Lemma sig_of_spec m t s : t < two64 -> (sig_of m t = Got s <-> tbl_sig m t s).
Proof.
  intros Ht. unfold sig_of, tbl_sig. change acpi_off_SDT_Signature with 0.
  change (N.to_nat acpi_sizeof_SDT_Signature) with 4%nat. rewrite w64_add0 by assumption. apply rdle_spec.
Qed.

Lemma mar_complete_good m fail s t sg : no_seam_failure fail -> t < two64 ->
  tbl_good m t -> tbl_sig m t sg ->
  exists s1, map_and_register m fail s t = (s1, None, Some (sg, t)) /\
             st_events s1 = st_events s /\ st_tmap s1 = (sg, t) :: st_tmap s.
Proof.
  intros Hf Ht (len & Hl & Hz) Hsg. unfold map_and_register.
  apply validTable_true in Hz. destruct (map_complete m fail (st_seam s) t len true Hf Ht Hl Hz) as (sm & Hm). rewrite Hm.
  apply sig_of_spec in Hsg; [|assumption]. rewrite Hsg. eexists. split; [reflexivity|]. simpl. auto.
Qed.

Lemma mar_complete_bad m fail s t sg len : no_seam_failure fail -> t < two64 ->
  tbl_bad m t len -> tbl_sig m t sg ->
  exists s1, map_and_register m fail s t = (s1, None, None) /\
             st_events s1 = EvMismatch sg t len :: st_events s /\ st_tmap s1 = st_tmap s.
Proof.
  intros Hf Ht [Hl Hz] Hsg. unfold map_and_register. apply validTable_false in Hz.
  destruct (map_complete m fail (st_seam s) t len false Hf Ht Hl Hz) as (sm & Hm). rewrite Hm.
  apply sig_of_spec in Hsg; [|assumption]. rewrite Hsg. eexists. split; [reflexivity|]. simpl. auto.
Qed.

Lemma dsdt_pointer_spec m rev f d : f < two64 ->
  (dsdt_pointer m rev f = Got d <-> fadt_dsdt m rev f d).
Proof.
  intros Hf. unfold dsdt_pointer, fadt_dsdt.
  change (N.to_nat acpi_sizeof_FADT_Dsdt) with 4%nat. change (N.to_nat acpi_sizeof_FADT_Ext_Dsdt) with 8%nat.
  change acpi_acpiRev2Plus with 2.
  destruct (rdle m (w64 (f + acpi_off_FADT_Dsdt)) 4) as [d32|x] eqn:H32.
  - apply rdle_spec in H32. destruct (N.leb_spec 2 rev) as [Hr|Hr].
    + rewrite rdle_spec. split.
      * intros H. right. split; [exact Hr|]. split; [exists d32; exact H32 | exact H].
      * intros [[Hlt _]|[_ [_ H]]]; [lia | exact H].
    + split.
      * intros H. injection H as <-. left. auto.
      * intros [[_ H]|[Hge _]]; [|lia]. f_equal. eapply field_fun; eauto.
  - split; [discriminate|].
    assert (Hno : forall v, ~ field m (w64 (f + acpi_off_FADT_Dsdt)) 4 v).
    { intros v Hv. apply rdle_spec in Hv. congruence. }
    intros [[_ H]|[_ [[v H] _]]]; exfalso; eapply Hno; eauto.
Qed.

(** ---- the walk ---- *)
Lemma walk_addrs_lt m rev es vs ev regs : bytes_ok m -> walk m rev es vs ev regs ->
  Forall (fun a => a < two64) es -> Forall (fun a => a < two64) vs.
Proof.
  intros Hok H. induction H; intros Hall; inversion Hall; subst; repeat constructor; auto.
  all: eapply fadt_dsdt_lt; eauto.
Qed.

Lemma visit_all_complete m fail rev : bytes_ok m -> no_seam_failure fail ->
  forall es vs ev regs, walk m rev es vs ev regs ->
  forall s, Forall (fun a => a < two64) es ->
    exists s', visit_all m fail rev s es = (s', IOk) /\
      st_events s' = List.rev ev ++ st_events s /\ st_tmap s' = List.rev regs ++ st_tmap s.
Proof.
  intros Hok Hf es vs ev regs H.
  induction H as [| t len sg es vs ev regs Hb Hsg Hw IH | t sg es vs ev regs Hg Hsg Hne Hw IH
                 | f d sd es vs ev regs Hg Hsg Hd Hgd Hsd Hw IH | f d sd len es vs ev regs Hg Hsg Hd Hbd Hsd Hw IH];
    intros s Hall.
  - exists s. simpl. auto.
  - inversion Hall as [|? ? Ht Hrest]; subst.
    destruct (mar_complete_bad m fail s t sg len Hf Ht Hb Hsg) as (s1 & Hm & Hev & Htm).
    destruct (IH s1 Hrest) as (s' & Hv & He & Htt).
    exists s'. simpl. unfold visit. rewrite Hm, Hv. split; [reflexivity|].
    simpl. rewrite He, Htt, Hev, Htm, <- app_assoc. auto.
  - inversion Hall as [|? ? Ht Hrest]; subst.
    destruct (mar_complete_good m fail s t sg Hf Ht Hg Hsg) as (s1 & Hm & Hev & Htm).
    destruct (IH s1 Hrest) as (s' & Hv & He & Htt).
    exists s'. simpl. unfold visit. rewrite Hm. change acpi_fadtSignature with FACP.
    destruct (N.eqb_spec sg FACP) as [|_]; [contradiction|]. rewrite Hv. split; [reflexivity|].
    simpl. rewrite He, Htt, Hev, Htm, <- app_assoc. auto.
  - inversion Hall as [|? ? Ht Hrest]; subst.
    destruct (mar_complete_good m fail s f FACP Hf Ht Hg Hsg) as (s1 & Hm & Hev & Htm).
    pose proof (fadt_dsdt_lt m rev f d Hok Hd) as Hdlt.
    destruct (mar_complete_good m fail s1 d sd Hf Hdlt Hgd Hsd) as (s2 & Hm2 & Hev2 & Htm2).
    destruct (IH s2 Hrest) as (s' & Hv & He & Htt).
    exists s'. simpl. unfold visit. rewrite Hm. change acpi_fadtSignature with FACP. rewrite N.eqb_refl.
    apply dsdt_pointer_spec in Hd; [|assumption]. rewrite Hd, Hm2, Hv. split; [reflexivity|].
    simpl. rewrite He, Htt, Hev2, Htm2, Hev, Htm, <- !app_assoc. auto.
  - inversion Hall as [|? ? Ht Hrest]; subst.
    destruct (mar_complete_good m fail s f FACP Hf Ht Hg Hsg) as (s1 & Hm & Hev & Htm).
    pose proof (fadt_dsdt_lt m rev f d Hok Hd) as Hdlt.
    destruct (mar_complete_bad m fail s1 d sd len Hf Hdlt Hbd Hsd) as (s2 & Hm2 & Hev2 & Htm2).
    destruct (IH s2 Hrest) as (s' & Hv & He & Htt).
    exists s'. simpl. unfold visit. rewrite Hm. change acpi_fadtSignature with FACP. rewrite N.eqb_refl.
    apply dsdt_pointer_spec in Hd; [|assumption]. rewrite Hd, Hm2, Hv. split; [reflexivity|].
    simpl. rewrite He, Htt, Hev2, Htm2, Hev, Htm, <- !app_assoc. auto.
Qed.

(** ---- the root table's entries ---- *)
Lemma entries_iter_sound m w : forall n p acc p' acc',
  iter_N (entry_step m w) n (p, acc) = inl (p', acc') ->
  exists es, acc' = List.rev es ++ acc /\ N.of_nat (length es) = n /\ entries_at m p w es.
Proof.
  induction n as [|n IH] using N.peano_ind; intros p acc p' acc' H.
  - simpl in H. injection H as <- <-. exists []. simpl. auto.
  - rewrite iter_N_succ in H. unfold entry_step at 1 in H.
    destruct (rdle m p w) as [v|x] eqn:Hv; simpl in H; [|discriminate].
    apply rdle_spec in Hv. destruct (IH _ _ _ _ H) as (es & -> & Hl & He).
    exists (v :: es). simpl. rewrite <- app_assoc. simpl. split; [reflexivity|]. split; [lia | auto].
Qed.

Lemma entries_iter_complete m w : forall es p acc, entries_at m p w es ->
  exists p', iter_N (entry_step m w) (N.of_nat (length es)) (p, acc) = inl (p', List.rev es ++ acc).
Proof.
  induction es as [|e r IH]; intros p acc H.
  - exists p. reflexivity.
  - simpl in H. destruct H as [He Hr].
    change (length (e :: r)) with (S (length r)). rewrite Nat2N.inj_succ, iter_N_succ.
    unfold entry_step at 1. apply rdle_spec in He. rewrite He. simpl bindS.
    destruct (IH _ (e :: acc) Hr) as (p' & Hi). exists p'. rewrite Hi. simpl. rewrite <- app_assoc. reflexivity.
Qed.

Lemma entries_lt m w : bytes_ok m -> (w <= 8)%nat -> forall es p, entries_at m p w es ->
  Forall (fun a => a < two64) es.
Proof.
  intros Hok Hw. induction es as [|e r IH]; intros p H; constructor; simpl in H; destruct H as [He Hr].
  - eapply field_lt64; eauto.
  - eapply IH; eauto.
Qed.

Lemma entry_count len (useX : bool) : 36 <= len -> len < two32 ->
  N.shiftr (sub32 len acpi_sizeof_SDTHeader) (if useX then 3 else 2) = (len - 36) / N.of_nat (entry_width useX).
Proof.
  intros H1 H2. change acpi_sizeof_SDTHeader with 36. unfold sub32, w32.
  rewrite (N.mod_small 36) by (unfold two32; lia).
  replace ((len + two32 - 36) mod two32) with (len - 36).
  2:{ unfold two32 in *. lia. }
  rewrite N.shiftr_div_pow2. destruct useX; reflexivity.
Qed.

Lemma entry_width_nat (useX : bool) : (if useX then 8%nat else 4%nat) = entry_width useX.
Proof. reflexivity. Qed.

Theorem enumerate_complete m fail root useX len rootRev es vs ev regs :
  bytes_ok m -> root < two64 -> no_seam_failure fail ->
  tbl_len m root len -> sums_to_zero m root len -> 36 <= len ->
  m (w64 (root + 8)) = Some rootRev ->
  root_lists m root len useX es -> walk m rootRev es vs ev regs ->
  exists s, enumerateTables m fail root useX = (s, IOk) /\
            st_events s = List.rev ev /\ st_tmap s = List.rev regs.
Proof.
  intros Hok Hroot Hf Hl Hz H36 Hrv [Hcnt Hent] Hw. unfold enumerateTables.
  apply validTable_true in Hz. destruct (map_complete m fail (st_seam state0) root len true Hf Hroot Hl Hz) as (sm & Hm). rewrite Hm.
  change acpi_off_SDT_Revision with 8. apply rd8_spec in Hrv. rewrite Hrv.
  rewrite entry_width_nat, entry_count; [|assumption|eapply field4_lt; eauto].
  unfold read_entries. rewrite <- Hcnt. change acpi_sizeof_SDTHeader with 36.
  destruct (entries_iter_complete m (entry_width useX) es _ [] Hent) as (p' & Hi). rewrite Hi.
  rewrite app_nil_r, rev_involutive.
  assert (Hlt : Forall (fun a => a < two64) es).
  { eapply (entries_lt m (entry_width useX) Hok); [destruct useX; simpl; lia | exact Hent]. }
  destruct (visit_all_complete m fail rootRev Hok Hf es vs ev regs Hw (with_seam state0 sm) Hlt) as (s' & Hv & He & Ht).
  exists s'. rewrite Hv. simpl in He, Ht. rewrite app_nil_r in He, Ht. auto.
Qed.
