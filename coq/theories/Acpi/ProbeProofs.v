(** locateRSDT: the scan returns the first aligned slot that holds a checksum-valid root pointer. *)
From Coq Require Import NArith ZArith Lia List Bool.
From Coq Require Import ZifyBool ZifyN ZifyNat.
From FF Require Import Lib.Word Gen.Consts_device_acpi Acpi.Model Acpi.Spec Acpi.BytesProofs.
Import ListNotations.
Local Open Scope N_scope.

(** Obligations on the regenerated constants: the kernel's structs and lengths are the ACPI ones. *)
Lemma consts_rsdp :
  acpi_rsdpSignature = rsdp_signature /\ acpi_off_RSDP_Signature = 0 /\ acpi_off_RSDP_Revision = 15 /\
  acpi_acpiRev1 = 0 /\ acpi_sizeof_RSDPDescriptor = 20 /\ acpi_extRSDPLength = 36 /\
  acpi_off_RSDP_RSDTAddr = 16 /\ acpi_sizeof_RSDP_RSDTAddr = 4 /\
  acpi_off_ExtRSDP_XSDTAddr = 24 /\ acpi_sizeof_ExtRSDP_XSDTAddr = 8.
Proof. repeat split; reflexivity. Qed.

Lemma sig_match_true m : forall sig a, sig_match m a sig = Got true <-> bytes_at m a sig.
Proof.
  induction sig as [|c r IH]; intros a; simpl. { tauto. }
  destruct (m a) as [b|] eqn:Hb.
  - destruct (N.eqb_spec b c) as [->|Hne].
    + rewrite IH. split; [intros; split; auto | tauto].
    + split; [discriminate | intros [H _]; congruence].
  - split; [discriminate | intros [H _]; discriminate].
Qed.

Lemma sig_match_false m : forall sig a, a < two64 ->
  (sig_match m a sig = Got false <->
   exists i b, (i < length sig)%nat /\ bytes_at m a (firstn i sig) /\
               m (w64 (a + N.of_nat i)) = Some b /\ b <> nth i sig 0).
Proof.
  induction sig as [|c r IH]; intros a Ha; simpl.
  - split; [discriminate | intros (i & b & Hi & _); lia].
  - destruct (m a) as [b|] eqn:Hb.
    + destruct (N.eqb_spec b c) as [->|Hne].
      * rewrite (IH _ (w64_lt _)). split.
        -- intros (i & b & Hi & Hp & Hm & Hn). exists (S i), b. simpl. repeat split; auto; try lia.
           rewrite w64_add_add in Hm. replace (a + N.pos (Pos.of_succ_nat i)) with (a + (1 + N.of_nat i)) by lia. exact Hm.
        -- intros (i & b & Hi & Hp & Hm & Hn). destruct i as [|i].
           ++ simpl in Hm. rewrite w64_add0 in Hm by assumption. simpl in Hn. congruence.
           ++ exists i, b. simpl in Hp, Hn. destruct Hp as [_ Hp]. repeat split; auto; try lia.
              rewrite w64_add_add. replace (a + (1 + N.of_nat i)) with (a + N.of_nat (S i)) by lia. exact Hm.
      * split; [intros _ | reflexivity]. exists 0%nat, b. simpl. rewrite w64_add0 by assumption.
        repeat split; auto. lia.
    + split; [discriminate|]. intros (i & b & Hi & Hp & Hm & Hn). destruct i as [|i].
      * simpl in Hm. rewrite w64_add0 in Hm by assumption. congruence.
      * simpl in Hp. destruct Hp as [Hp _]. congruence.
Qed.

Lemma firstn_skipn_len {A} (l : list A) i n : (i + n <= length l)%nat -> length (firstn n (skipn i l)) = n.
Proof. intros H. rewrite firstn_length, skipn_length. lia. Qed.

(** a field inside a block of bytes *)
Lemma field_in_block m a bs i n v : a < two64 -> bytes_at m a bs -> (i + n <= length bs)%nat ->
  (field m (w64 (a + N.of_nat i)) n v <-> v = le_bytes (firstn n (skipn i bs))).
Proof.
  intros Ha Hbs Hl. unfold field.
  assert (Hsub : bytes_at m (w64 (a + N.of_nat i)) (firstn n (skipn i bs))).
  { apply bytes_at_firstn, bytes_at_skipn; assumption. }
  split.
  - intros (bs' & Hl' & Hbs' & ->). f_equal. eapply bytes_at_inj; eauto.
    rewrite firstn_skipn_len; lia.
  - intros ->. eexists. repeat split; eauto. apply firstn_skipn_len. exact Hl.
Qed.

Lemma rsdp_len_cases rev : (rev = 0 /\ rsdp_len rev = 20%nat) \/ (rev <> 0 /\ rsdp_len rev = 36%nat).
Proof. unfold rsdp_len. destruct (N.eqb_spec rev 0); auto. Qed.

(** what [check_slot] does once signature and revision are read: the checksum over [len] bytes, then the root pointer
    ([sz] bytes at [off]); the two revisions differ in these numbers only *)
Definition slot_tail (m : mem) (a len off : N) (sz : nat) (x : bool) : slot_res :=
  match validTable m a len with
  | Fault e => SStray e
  | Got false => SReject
  | Got true => match rdle m (w64 (a + off)) sz with Fault e => SStray e | Got p => SAccept p x end
  end.

Lemma check_slot_tail m a : check_slot m a =
  match sig_match m (w64 (a + 0)) rsdp_signature with
  | Fault e => SStray e
  | Got false => SReject
  | Got true => match rd8 m (w64 (a + 15)) with
                | Fault e => SStray e
                | Got rev => if rev =? 0 then slot_tail m a 20 16 4 false else slot_tail m a 36 24 8 true
                end
  end.
Proof. reflexivity. Qed.

Lemma slot_tail_accept m a len off sz x p x' : a < two64 -> (off + sz <= len)%nat ->
  slot_tail m a (N.of_nat len) (N.of_nat off) sz x = SAccept p x' <->
  exists bs, length bs = len /\ bytes_at m a bs /\ sum8 bs mod 256 = 0 /\
             x' = x /\ p = le_bytes (firstn sz (skipn off bs)).
Proof.
  intros Ha Hl. unfold slot_tail. split.
  - destruct (validTable m a (N.of_nat len)) as [[|]|] eqn:Hv; try discriminate.
    apply validTable_true in Hv. destruct Hv as (bs & Hlen & Hbs & Hsum).
    destruct (rdle m (w64 (a + N.of_nat off)) sz) as [p'|] eqn:Hp; try discriminate.
    intros H. injection H as <- <-. apply rdle_spec in Hp.
    apply (field_in_block m a bs off sz p' Ha Hbs) in Hp; [|lia]. exists bs. repeat split; auto. lia.
  - intros (bs & Hlen & Hbs & Hsum & -> & ->).
    assert (Hv : validTable m a (N.of_nat len) = Got true) by (apply validTable_true; exists bs; repeat split; auto; lia).
    assert (Hp : rdle m (w64 (a + N.of_nat off)) sz = Got (le_bytes (firstn sz (skipn off bs))))
      by (apply rdle_spec, (field_in_block m a bs off sz _ Ha Hbs); [lia|reflexivity]).
    rewrite Hv, Hp. reflexivity.
Qed.

Lemma slot_tail_reject m a len off sz x : slot_tail m a len off sz x = SReject <-> sums_to_nonzero m a len.
Proof.
  unfold slot_tail. rewrite <- validTable_false.
  destruct (validTable m a len) as [[|]|]; [destruct (rdle _ _ _)|..]; split; intros H; try reflexivity; discriminate H.
Qed.

Lemma head_of_block m a bs : a < two64 -> bytes_at m a bs -> (15 < length bs)%nat ->
  (sig_match m a rsdp_signature = Got true <-> firstn 8 bs = rsdp_signature) /\
  rd8 m (w64 (a + 15)) = Got (nth 15 bs 0).
Proof.
  intros Ha Hbs Hl. split.
  - rewrite sig_match_true. split.
    + intros Hs. symmetry. rewrite (bytes_at_prefix m rsdp_signature bs a Hs Hbs) by (simpl; lia). reflexivity.
    + intros <-. apply bytes_at_firstn. exact Hbs.
  - apply rd8_spec. exact (bytes_at_nth m bs a Hbs Ha 15 Hl).
Qed.

Lemma rsdp_len_gt rev : (15 < rsdp_len rev)%nat.
Proof. destruct (rsdp_len_cases rev) as [[_ E]|[_ E]]; lia. Qed.

Lemma check_slot_accept m a p x : a < two64 ->
  (check_slot m a = SAccept p x <-> rsdp_accepted m a p x).
Proof.
  intros Ha. rewrite check_slot_tail, w64_add0 by assumption. unfold rsdp_accepted. split.
  - destruct (sig_match m a rsdp_signature) as [[|]|] eqn:Hs; try discriminate.
    destruct (rd8 m (w64 (a + 15))) as [rev|] eqn:Hr; try discriminate. intros H.
    assert (Hex : exists bs, length bs = rsdp_len rev /\ bytes_at m a bs /\ sum8 bs mod 256 = 0 /\
                    if rev =? 0 then x = false /\ p = le_bytes (firstn 4 (skipn 16 bs))
                    else x = true /\ p = le_bytes (firstn 8 (skipn 24 bs))).
    { unfold rsdp_len. destruct (rev =? 0);
        [apply (slot_tail_accept m a 20 16 4) in H|apply (slot_tail_accept m a 36 24 8) in H]; try lia; try assumption;
        destruct H as (bs & H1 & H2 & H3 & H4 & H5); exists bs; auto. }
    destruct Hex as (bs & Hlen & Hbs & Hsum & Hsel).
    destruct (head_of_block m a bs Ha Hbs ltac:(rewrite Hlen; apply rsdp_len_gt)) as [Hsig Hn].
    rewrite Hr in Hn. injection Hn as ->. exists bs. repeat split; auto. apply Hsig. exact Hs.
  - intros (bs & Hbs & Hsig & Hlen & Hsum & Hsel).
    destruct (head_of_block m a bs Ha Hbs ltac:(rewrite Hlen; apply rsdp_len_gt)) as [Hs Hn].
    rewrite (proj2 Hs Hsig), Hn. unfold rsdp_len in Hlen.
    destruct (nth 15 bs 0 =? 0); destruct Hsel as [-> ->];
      [apply (slot_tail_accept m a 20 16 4)|apply (slot_tail_accept m a 36 24 8)]; try lia; try assumption; exists bs; auto.
Qed.

Lemma check_slot_reject m a : a < two64 -> (check_slot m a = SReject <-> rsdp_rejected m a).
Proof.
  intros Ha. rewrite check_slot_tail, w64_add0 by assumption. unfold rsdp_rejected. split.
  - destruct (sig_match m a rsdp_signature) as [[|]|] eqn:Hs; try discriminate.
    + destruct (rd8 m (w64 (a + 15))) as [rev|] eqn:Hr; try discriminate. intros H. right.
      assert (Hnz : sums_to_nonzero m a (N.of_nat (rsdp_len rev))).
      { unfold rsdp_len. destruct (rev =? 0); apply slot_tail_reject in H; exact H. }
      destruct Hnz as (bs & Hlen & Hbs & Hsum). apply Nat2N.inj in Hlen.
      destruct (head_of_block m a bs Ha Hbs ltac:(rewrite Hlen; apply rsdp_len_gt)) as [Hsig Hn].
      rewrite Hr in Hn. injection Hn as ->. exists bs. repeat split; auto. apply Hsig. exact Hs.
    + intros _. left. apply (sig_match_false m rsdp_signature a Ha) in Hs.
      destruct Hs as (i & b & Hi & Hrest). exists i, b. split; [exact Hi | exact Hrest].
  - intros [(i & b & Hi & Hp & Hm & Hn) | (bs & Hbs & Hsig & Hlen & Hsum)].
    + assert (Hs : sig_match m a rsdp_signature = Got false).
      { apply (sig_match_false m rsdp_signature a Ha). exists i, b. repeat split; auto. }
      rewrite Hs. reflexivity.
    + destruct (head_of_block m a bs Ha Hbs ltac:(rewrite Hlen; apply rsdp_len_gt)) as [Hs Hn].
      rewrite (proj2 Hs Hsig), Hn. unfold rsdp_len in Hlen.
      destruct (nth 15 bs 0 =? 0); apply slot_tail_reject; exists bs; repeat split; auto; lia.
Qed.

(** ---- the scan ---- *)
Inductive scan_rel (m : mem) (hi align : N) : N -> probe_res -> Prop :=
| sr_end cur : hi <= cur -> scan_rel m hi align cur PMissing
| sr_acc cur p x : cur < hi -> check_slot m cur = SAccept p x -> scan_rel m hi align cur (PFound p x)
| sr_stray cur a : cur < hi -> check_slot m cur = SStray a -> scan_rel m hi align cur (PStray a)
| sr_rej cur r : cur < hi -> check_slot m cur = SReject ->
                 scan_rel m hi align (cur + align) r -> scan_rel m hi align cur r.

Lemma scan_total m hi align : 0 < align -> hi + align <= two64 ->
  forall n cur, 0 < n -> hi + align <= cur + n * align ->
    exists r, iter_N (scan_step m hi align) n cur = inr r /\ scan_rel m hi align cur r.
Proof.
  intros Hal Hhi. induction n as [|n IH] using N.peano_ind; intros cur Hpos Hn.
  - lia.
  - rewrite N.mul_succ_l in Hn. rewrite iter_N_succ. unfold scan_step at 1.
    destruct (N.ltb_spec cur hi) as [Hlt|Hge].
    + destruct (check_slot m cur) as [p x| |a] eqn:Hc; simpl bindS.
      * eexists. split; [reflexivity|]. apply sr_acc; assumption.
      * rewrite w64_small by lia.
        destruct (IH (cur + align) ltac:(nia) ltac:(lia)) as (r & Hi & Hr).
        exists r. split; [exact Hi|]. apply sr_rej; assumption.
      * eexists. split; [reflexivity|]. apply sr_stray; assumption.
    + simpl. eexists. split; [reflexivity|]. apply sr_end. lia.
Qed.

Lemma scan_is_rel m low hi align : 0 < align -> hi + align <= two64 ->
  scan_rel m hi align low (scan m low hi align).
Proof.
  intros Hal Hhi. unfold scan.
  destruct (scan_total m hi align Hal Hhi ((hi - low) / align + 2) low) as (r & Hi & Hr).
  { apply N.add_pos_r. reflexivity. }
  { pose proof (N.div_mod (hi - low) align ltac:(lia)) as Hdm.
    pose proof (N.mod_lt (hi - low) align ltac:(lia)) as Hml.
    set (q := (hi - low) / align) in *. set (r0 := (hi - low) mod align) in *.
    clearbody q r0. nia. }
  rewrite Hi. exact Hr.
Qed.

Definition slots_before_rejected (m : mem) (low hi align a : N) : Prop :=
  forall a', in_window low hi align a' -> a' < a -> check_slot m a' = SReject.

Lemma in_window_step low hi align a : 0 < align -> low < hi ->
  in_window low hi align a <-> a = low \/ in_window (low + align) hi align a.
Proof.
  intros Hal Hlt. unfold in_window. split.
  - intros (k & -> & Hk). destruct (N.eq_dec k 0) as [->|Hk0]; [left; lia|].
    right. exists (k - 1). split; [nia | exact Hk].
  - intros [-> | (k & -> & Hk)]; [exists 0; lia | exists (k + 1); split; [nia | exact Hk]].
Qed.

Lemma scan_rel_char m hi align : 0 < align -> forall cur r, scan_rel m hi align cur r ->
  match r with
  | PFound p x => exists a, in_window cur hi align a /\ check_slot m a = SAccept p x /\
                            slots_before_rejected m cur hi align a
  | PStray x => exists a, in_window cur hi align a /\ check_slot m a = SStray x /\
                          slots_before_rejected m cur hi align a
  | PMissing => forall a, in_window cur hi align a -> check_slot m a = SReject
  | _ => False
  end.
Proof.
  intros Hal cur r H. induction H as [cur Hge | cur p x Hlt Hc | cur a Hlt Hc | cur r Hlt Hc Hrel IH].
  - intros a (k & -> & Hk). nia.
  - exists cur. split; [exists 0; split; [lia | exact Hlt]|]. split; [exact Hc|].
    intros a' (k & -> & _) Hlt'. nia.
  - exists cur. split; [exists 0; split; [lia | exact Hlt]|]. split; [exact Hc|].
    intros a' (k & -> & _) Hlt'. nia.
  - assert (Hstep := fun a => in_window_step cur hi align a Hal Hlt).
    destruct r as [p x| | |x|]; try contradiction.
    + destruct IH as (a & Hin & Hacc & Hbef). exists a. split; [apply Hstep; right; exact Hin|]. split; [exact Hacc|].
      intros a' Hin' Hlt'. apply Hstep in Hin'. destruct Hin' as [->|Hin']; [exact Hc | apply Hbef; assumption].
    + intros a Hin. apply Hstep in Hin. destruct Hin as [->|Hin]; [exact Hc | apply IH; exact Hin].
    + destruct IH as (a & Hin & Hacc & Hbef). exists a. split; [apply Hstep; right; exact Hin|]. split; [exact Hacc|].
      intros a' Hin' Hlt'. apply Hstep in Hin'. destruct Hin' as [->|Hin']; [exact Hc | apply Hbef; assumption].
Qed.

Lemma scan_rel_fun m hi align cur r1 r2 :
  scan_rel m hi align cur r1 -> scan_rel m hi align cur r2 -> r1 = r2.
Proof.
  intros H1. revert r2. induction H1; intros r2 H2; inversion H2; subst; try congruence; try lia.
  apply IHscan_rel. assumption.
Qed.

(** the classification of the slots determines the scan's verdict ([scan_rel_char] is the converse) *)
Lemma scan_complete_found m hi align : 0 < align -> forall cur r, scan_rel m hi align cur r ->
  forall a p x, in_window cur hi align a -> check_slot m a = SAccept p x ->
    slots_before_rejected m cur hi align a -> r = PFound p x.
Proof.
  intros Hal cur r H. induction H as [cur Hge | cur p x Hlt Hc | cur a Hlt Hc | cur r Hlt Hc Hrel IH];
    intros a0 p0 x0 Hin Hacc Hbef.
  - destruct Hin as (k & -> & Hk). nia.
  - destruct (N.eq_dec a0 cur) as [->|Hne]; [congruence|].
    assert (Hrej : check_slot m cur = SReject).
    { apply Hbef; [exists 0; split; [lia|exact Hlt]|]. destruct Hin as (k & -> & _). nia. }
    congruence.
  - destruct (N.eq_dec a0 cur) as [->|Hne]; [congruence|].
    assert (Hrej : check_slot m cur = SReject).
    { apply Hbef; [exists 0; split; [lia|exact Hlt]|]. destruct Hin as (k & -> & _). nia. }
    congruence.
  - apply (in_window_step cur hi align a0 Hal Hlt) in Hin. destruct Hin as [->|Hin]; [congruence|].
    apply (IH a0 p0 x0 Hin Hacc). intros a' Hin' Hlt'. apply Hbef; [|exact Hlt'].
    apply (in_window_step cur hi align a' Hal Hlt). right. exact Hin'.
Qed.

Lemma scan_complete_missing m hi align : 0 < align -> forall cur r, scan_rel m hi align cur r ->
  (forall a, in_window cur hi align a -> check_slot m a = SReject) -> r = PMissing.
Proof.
  intros Hal cur r H. induction H as [cur Hge | cur p x Hlt Hc | cur a Hlt Hc | cur r Hlt Hc Hrel IH]; intros Hall.
  - reflexivity.
  - rewrite Hall in Hc; [discriminate | exists 0; split; [lia|exact Hlt]].
  - rewrite Hall in Hc; [discriminate | exists 0; split; [lia|exact Hlt]].
  - apply IH. intros a Hin. apply Hall. apply (in_window_step cur hi align a Hal Hlt). right. exact Hin.
Qed.

Lemma in_window_lt low hi align a : hi + align <= two64 -> in_window low hi align a -> a < two64.
Proof. intros Hhi (k & -> & Hk). lia. Qed.

(** ---- the theorems of Props/C14.v about the probe ---- *)
Lemma locate_no_fail m low hi align :
  fst (fst (locateRSDT m low hi align None)) = scan m low hi align.
Proof. reflexivity. Qed.

Theorem rsdp_found_sound m low hi align : 0 < align -> hi + align <= two64 ->
  match fst (fst (locateRSDT m low hi align None)) with
  | PFound root x =>
      exists a, in_window low hi align a /\ rsdp_accepted m a root x /\
                forall a', in_window low hi align a' -> a' < a -> rsdp_rejected m a'
  | PMissing => forall a, in_window low hi align a -> rsdp_rejected m a
  | PStray _ =>
      exists a, in_window low hi align a /\
                ~ rsdp_rejected m a /\ (forall root x, ~ rsdp_accepted m a root x) /\
                forall a', in_window low hi align a' -> a' < a -> rsdp_rejected m a'
  | PMapErr | PFuel => False
  end.
Proof.
  intros Hal Hhi. rewrite locate_no_fail.
  pose proof (scan_rel_char m hi align Hal low _ (scan_is_rel m low hi align Hal Hhi)) as H.
  destruct (scan m low hi align) as [p x| | |y|]; try contradiction.
  - destruct H as (a & Hin & Hacc & Hbef). exists a. split; [exact Hin|].
    pose proof (in_window_lt _ _ _ _ Hhi Hin) as Ha. split; [apply check_slot_accept; assumption|].
    intros a' Hin' Hlt'. apply check_slot_reject; [eapply in_window_lt; eauto|]. apply Hbef; assumption.
  - intros a Hin. apply check_slot_reject; [eapply in_window_lt; eauto|]. apply H. exact Hin.
  - destruct H as (a & Hin & Hacc & Hbef). exists a. split; [exact Hin|].
    pose proof (in_window_lt _ _ _ _ Hhi Hin) as Ha. split.
    { intros Hr. apply check_slot_reject in Hr; [congruence | exact Ha]. }
    split.
    { intros root x Hr. apply check_slot_accept in Hr; [congruence | exact Ha]. }
    intros a' Hin' Hlt'. apply check_slot_reject; [eapply in_window_lt; eauto|]. apply Hbef; assumption.
Qed.

Theorem rsdp_found_complete m low hi align : 0 < align -> hi + align <= two64 ->
  (forall a root x, in_window low hi align a -> rsdp_accepted m a root x ->
      (forall a', in_window low hi align a' -> a' < a -> rsdp_rejected m a') ->
      fst (fst (locateRSDT m low hi align None)) = PFound root x) /\
  ((forall a, in_window low hi align a -> rsdp_rejected m a) ->
      fst (fst (locateRSDT m low hi align None)) = PMissing).
Proof.
  intros Hal Hhi. rewrite locate_no_fail.
  pose proof (scan_is_rel m low hi align Hal Hhi) as Hrel. split.
  - intros a root x Hin Hacc Hbef.
    pose proof (in_window_lt _ _ _ _ Hhi Hin) as Ha.
    eapply (scan_complete_found m hi align Hal low _ Hrel a); [exact Hin | apply check_slot_accept; assumption|].
    intros a' Hin' Hlt'. apply check_slot_reject; [eapply in_window_lt; eauto|]. apply Hbef; assumption.
  - intros Hall. eapply (scan_complete_missing m hi align Hal low _ Hrel).
    intros a Hin. apply check_slot_reject; [eapply in_window_lt; eauto|]. apply Hall. exact Hin.
Qed.
