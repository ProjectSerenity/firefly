(** What enumerateTables finds in an image, by its result: success is a [walk] over the listed tables, a mapping-seam
    failure aborts the enumeration at the first failing call; the mismatch reports in enumeration order. *)
From Coq Require Import NArith ZArith Lia List Bool.
From FF Require Import Lib.Word Gen.Consts_device_acpi Acpi.Model Acpi.Spec Acpi.BytesProofs Acpi.EnumProofs.
Import ListNotations.
Local Open Scope N_scope.

(** no identityMapFn call made so far failed / the last call made is the first one that failed *)
Definition seam_ok (fail : N -> bool) (s : seam) : Prop := forall j, j < sk s -> fail j = false.
Definition seam_failed (fail : N -> bool) (s : seam) : Prop :=
  exists k, fail k = true /\ sk s = k + 1 /\ forall j, j < k -> fail j = false.

Lemma seam_ok_step fail s : seam_ok fail s -> fail (sk s) = false ->
  forall j, j < sk s + 1 -> fail j = false.
Proof. intros Hok F j Hj. destruct (N.eq_dec j (sk s)) as [->|Hne]; [exact F | apply Hok; lia]. Qed.

Lemma map_by_result m fail s t s' r : t < two64 -> seam_ok fail s ->
  mapACPITable m fail s t = (s', r) ->
  match r with
  | MOk h len => h = t /\ tbl_len m t len /\ sums_to_zero m t len /\ seam_ok fail s'
  | MMismatch h len => h = t /\ tbl_bad m t len /\ seam_ok fail s'
  | MErr => seam_failed fail s'
  | MStray _ => seam_ok fail s'
  end.
Proof.
  intros Ht Hok. unfold mapACPITable, idmap.
  destruct (fail (sk s)) eqn:F1; simpl negb; cbv beta iota.
  - intros H. injection H as <- <-. exists (sk s). simpl. split; [exact F1|]. split; [reflexivity | exact Hok].
  - rewrite (hpa_identity t Ht).
    change acpi_off_SDT_Length with 4. change (N.to_nat acpi_sizeof_SDT_Length) with 4%nat.
    pose proof (seam_ok_step fail s Hok F1) as Hok1.
    destruct (rdle m (w64 (t + 4)) 4) as [len|x] eqn:Hl.
    + apply rdle_spec in Hl. cbn [sk].
      destruct (fail (sk s + 1)) eqn:F2; simpl negb; cbv beta iota.
      * intros H. injection H as <- <-. exists (sk s + 1). simpl. split; [exact F2|]. split; [reflexivity | exact Hok1].
      * assert (Hok2 : forall j, j < sk s + 1 + 1 -> fail j = false).
        { intros j Hj. destruct (N.eq_dec j (sk s + 1)) as [->|Hne]; [exact F2 | apply Hok1; lia]. }
        destruct (validTable m t len) as [[|]|x] eqn:Hv; intros H; injection H as <- <-.
        -- apply validTable_true in Hv. repeat split; auto.
        -- apply validTable_false in Hv. unfold tbl_bad. repeat split; auto.
        -- exact Hok2.
    + intros H. injection H as <- <-. exact Hok1.
Qed.

Inductive mr_outcome (m : mem) (t : N) (s s1 : state) : option (N * N) -> Prop :=
| mr_bad sg len : tbl_bad m t len -> tbl_sig m t sg ->
    st_events s1 = EvMismatch sg t len :: st_events s -> st_tmap s1 = st_tmap s ->
    mr_outcome m t s s1 None
| mr_good sg : tbl_good m t -> tbl_sig m t sg ->
    st_events s1 = st_events s -> st_tmap s1 = (sg, t) :: st_tmap s ->
    mr_outcome m t s s1 (Some (sg, t)).

Lemma map_register_by_result m fail s t s1 e reg : t < two64 -> seam_ok fail (st_seam s) ->
  map_and_register m fail s t = (s1, e, reg) ->
  match e with
  | None => mr_outcome m t s s1 reg /\ seam_ok fail (st_seam s1)
  | Some IErrMap => seam_failed fail (st_seam s1) /\ st_events s1 = st_events s /\ st_tmap s1 = st_tmap s /\ reg = None
  | Some (IStray _) => True
  | Some _ => False
  end.
Proof.
  intros Ht Hok. unfold map_and_register.
  destruct (mapACPITable m fail (st_seam s) t) as [sm r] eqn:Hm.
  pose proof (map_by_result m fail _ t sm r Ht Hok Hm) as Hs.
  destruct r as [h len|h len| |x].
  - destruct Hs as (-> & Hl & Hz & Hok').
    destruct (sig_of m t) as [sg|x] eqn:Hsg; intros H; inversion H; subst; [|exact I].
    apply sig_of_spec in Hsg; [|assumption]. split; [|exact Hok'].
    apply mr_good; simpl; auto. exists len. auto.
  - destruct Hs as (-> & Hb & Hok').
    destruct (sig_of m t) as [sg|x] eqn:Hsg; intros H; inversion H; subst; [|exact I].
    apply sig_of_spec in Hsg; [|assumption]. split; [|exact Hok'].
    eapply mr_bad; simpl; eauto.
  - intros H; inversion H; subst. simpl. auto.
  - intros H; inversion H; subst. exact I.
Qed.

(** how an enumeration that ends in a mapping error looks: a walk over the entries before the
    failing one, and at the failing entry either nothing, or the FADT registered and its DSDT not *)
Definition aborted_at (m : mem) (rev t : N) (extra : list (N * N)) : Prop :=
  extra = [] \/
  (extra = [(FACP, t)] /\ tbl_good m t /\ tbl_sig m t FACP /\ exists d, fadt_dsdt m rev t d).

Lemma walk_app m rev es1 vs1 ev1 regs1 es2 vs2 ev2 regs2 :
  walk m rev es1 vs1 ev1 regs1 -> walk m rev es2 vs2 ev2 regs2 ->
  walk m rev (es1 ++ es2) (vs1 ++ vs2) (ev1 ++ ev2) (regs1 ++ regs2).
Proof. intros H1 H2. induction H1; cbn [app]; [exact H2|..]; econstructor; eassumption. Qed.

(** one entry of the root table: it is walked (with the DSDT behind a FADT), or the seam fails at it *)
Lemma visit_by_result m fail rev s a s1 e : bytes_ok m -> a < two64 -> seam_ok fail (st_seam s) ->
  visit m fail rev s a = (s1, e) ->
  match e with
  | None => seam_ok fail (st_seam s1) /\ exists vs ev regs, walk m rev [a] vs ev regs /\
      st_events s1 = List.rev ev ++ st_events s /\ st_tmap s1 = List.rev regs ++ st_tmap s
  | Some IErrMap => seam_failed fail (st_seam s1) /\ exists extra, aborted_at m rev a extra /\
      st_events s1 = st_events s /\ st_tmap s1 = List.rev extra ++ st_tmap s
  | Some (IStray _) => True
  | Some _ => False
  end.
Proof.
  intros Hbok Ha Hok. unfold visit.
  destruct (map_and_register m fail s a) as [[s0 e0] reg] eqn:Hm.
  pose proof (map_register_by_result m fail s a s0 e0 reg Ha Hok Hm) as Hg.
  destruct e0 as [e0|].
  { intros H. injection H as <- <-. destruct e0; try exact Hg. destruct Hg as (Hf & Hev & Htm & _).
    split; [exact Hf|]. exists []. split; [left; reflexivity|auto]. }
  destruct Hg as [Ho Hok1]. destruct Ho as [sg len Hb Hsg Hev Htm | sg Hgd Hsg Hev Htm].
  - intros H. injection H as <- <-. split; [exact Hok1|]. exists [a], [EvMismatch sg a len], [].
    split; [eapply walk_bad; eauto; constructor|]. rewrite Hev, Htm. auto.
  - change acpi_fadtSignature with FACP. destruct (N.eqb_spec sg FACP) as [->|Hne].
    + destruct (dsdt_pointer m rev a) as [d|x] eqn:Hd; [|intros H; injection H as <- <-; exact I].
      apply dsdt_pointer_spec in Hd; [|assumption].
      pose proof (fadt_dsdt_lt m rev a d Hbok Hd) as Hdlt.
      destruct (map_and_register m fail s0 d) as [[s2 e2] reg2] eqn:Hm2.
      pose proof (map_register_by_result m fail s0 d s2 e2 reg2 Hdlt Hok1 Hm2) as Hg2.
      intros H. injection H as <- <-. destruct e2 as [e2|].
      * destruct e2; try exact Hg2. destruct Hg2 as (Hf & Hev2 & Htm2 & _). split; [exact Hf|].
        exists [(FACP, a)]. split; [right; split; [reflexivity|]; split; [exact Hgd|]; split; [exact Hsg|exists d; exact Hd]|].
        rewrite Hev2, Htm2, Hev, Htm. auto.
      * destruct Hg2 as [Ho2 Hok2]. split; [exact Hok2|].
        destruct Ho2 as [sd len Hb Hsd Hev2 Htm2 | sd Hg2 Hsd Hev2 Htm2].
        -- exists [a; d], [EvMismatch sd d len], [(FACP, a)]. split; [eapply walk_fadt_bad; eauto; constructor|].
           rewrite Hev2, Htm2, Hev, Htm. auto.
        -- exists [a; d], [], [(FACP, a); (sd, d)]. split; [eapply walk_fadt_good; eauto; constructor|].
           rewrite Hev2, Htm2, Hev, Htm. auto.
    + intros H. injection H as <- <-. split; [exact Hok1|]. exists [a], [], [(sg, a)].
      split; [eapply walk_good; eauto; constructor|]. rewrite Hev, Htm. auto.
Qed.

(** the entries in order: all walked and no call failed, or walked up to the entry the seam fails at *)
Lemma visit_all_by_result m fail rev : bytes_ok m ->
  forall addrs s s' r, Forall (fun a => a < two64) addrs -> seam_ok fail (st_seam s) ->
    visit_all m fail rev s addrs = (s', r) ->
    match r with
    | IOk => seam_ok fail (st_seam s') /\ exists vs ev regs, walk m rev addrs vs ev regs /\
        st_events s' = List.rev ev ++ st_events s /\ st_tmap s' = List.rev regs ++ st_tmap s
    | IErrMap => seam_failed fail (st_seam s') /\
        exists pre t post vs ev regs extra,
          addrs = pre ++ t :: post /\ walk m rev pre vs ev regs /\ aborted_at m rev t extra /\
          st_events s' = List.rev ev ++ st_events s /\ st_tmap s' = List.rev (regs ++ extra) ++ st_tmap s
    | _ => True
    end.
Proof.
  intros Hbok. induction addrs as [|a rest IH]; intros s s' r Hall Hok H.
  - simpl in H. injection H as <- <-. split; [exact Hok|]. exists [], [], []. split; [constructor|auto].
  - inversion Hall as [|? ? Ha Hrest]; subst. simpl in H.
    destruct (visit m fail rev s a) as [s1 e] eqn:Hv.
    pose proof (visit_by_result m fail rev s a s1 e Hbok Ha Hok Hv) as Hg.
    destruct e as [e|].
    + injection H as <- <-. destruct e; try exact I; try contradiction.
      destruct Hg as (Hf & extra & Hab & Hev & Htm). split; [exact Hf|].
      exists [], a, rest, [], [], [], extra. simpl. rewrite Hev, Htm. repeat split; auto. constructor.
    + destruct Hg as (Hok1 & vs1 & ev1 & regs1 & Hw1 & Hev1 & Htm1). specialize (IH s1 s' r Hrest Hok1 H).
      destruct r; try exact I.
      * destruct IH as (Hok' & vs & ev & regs & Hw & He & Ht). split; [exact Hok'|].
        exists (vs1 ++ vs), (ev1 ++ ev), (regs1 ++ regs). split; [exact (walk_app _ _ _ _ _ _ _ _ _ _ Hw1 Hw)|].
        rewrite He, Ht, Hev1, Htm1, !rev_app_distr, <- !app_assoc. auto.
      * destruct IH as (Hf & pre & t & post & vs & ev & regs & extra & -> & Hw & Hab & He & Ht). split; [exact Hf|].
        exists (a :: pre), t, post, (vs1 ++ vs), (ev1 ++ ev), (regs1 ++ regs), extra.
        split; [reflexivity|]. split; [exact (walk_app _ _ _ _ _ _ _ _ _ _ Hw1 Hw)|]. split; [exact Hab|].
        rewrite He, Ht, Hev1, Htm1, <- (app_assoc regs1), !rev_app_distr, <- !app_assoc. auto.
Qed.

Lemma seam_ok_0 fail : seam_ok fail (st_seam state0).
Proof. intros j Hj. simpl in Hj. lia. Qed.

Lemma enumerate_by_result m fail root useX s r : bytes_ok m -> root < two64 ->
  enumerateTables m fail root useX = (s, r) ->
  match r with
  | IOk => seam_ok fail (st_seam s) /\
      exists len rootRev es vs ev regs,
        tbl_len m root len /\ sums_to_zero m root len /\ m (w64 (root + 8)) = Some rootRev /\
        (36 <= len -> root_lists m root len useX es) /\
        walk m rootRev es vs ev regs /\
        st_events s = List.rev ev /\ st_tmap s = List.rev regs
  | IErrMap => seam_failed fail (st_seam s) /\
      ( (st_tmap s = [] /\ st_events s = [])
        \/
        exists len rootRev es pre t post vs ev regs extra,
          tbl_len m root len /\ sums_to_zero m root len /\ m (w64 (root + 8)) = Some rootRev /\
          (36 <= len -> root_lists m root len useX es) /\
          es = pre ++ t :: post /\ walk m rootRev pre vs ev regs /\ aborted_at m rootRev t extra /\
          st_events s = List.rev ev /\ st_tmap s = List.rev (regs ++ extra) )
  | _ => True
  end.
Proof.
  intros Hok Hroot. unfold enumerateTables.
  destruct (mapACPITable m fail (st_seam state0) root) as [sm mr] eqn:Hm.
  pose proof (map_by_result m fail _ root sm mr Hroot (seam_ok_0 fail) Hm) as Hs.
  destruct mr as [h len|h len| |x]; try (intros H; injection H as <- <-; exact I).
  2:{ intros H. injection H as <- <-. simpl. split; [exact Hs | left; auto]. }
  destruct Hs as (-> & Hl & Hz & Hoks). change acpi_off_SDT_Revision with 8.
  destruct (rd8 m (w64 (root + 8))) as [rv|x] eqn:Hrv; [|intros H; injection H as <- <-; exact I]. apply rd8_spec in Hrv.
  rewrite entry_width_nat.
  destruct (read_entries _ _ _ _) as [es0|x] eqn:He; [|intros H; injection H as <- <-; exact I].
  intros Hv. unfold read_entries in He.
  destruct (iter_N _ _ _) as [[p' acc']|x] eqn:Hi; [|discriminate]. injection He as <-.
  destruct (entries_iter_sound _ _ _ _ _ _ _ Hi) as (es & -> & Hlen & Hent).
  change acpi_sizeof_SDTHeader with 36 in Hent.
  rewrite app_nil_r, rev_involutive in Hv.
  assert (Hlt : Forall (fun a => a < two64) es).
  { eapply (entries_lt m (entry_width useX) Hok); [destruct useX; simpl; lia | exact Hent]. }
  assert (Hrl : 36 <= len -> root_lists m root len useX es).
  { intros H36. split; [|exact Hent]. rewrite Hlen. apply entry_count; [assumption|]. eapply field4_lt; eauto. }
  pose proof (visit_all_by_result m fail rv Hok es (with_seam state0 sm) s r Hlt Hoks Hv) as Hg.
  destruct r; try exact I.
  - destruct Hg as (Hok' & vs & ev & regs & Hw & Hev & Htm). split; [exact Hok'|].
    exists len, rv, es, vs, ev, regs. simpl in Hev, Htm. rewrite app_nil_r in Hev, Htm. auto 10.
  - destruct Hg as (Hf & pre & t & post & vs & ev & regs & extra & Hes & Hw & Hab & Hev & Htm).
    split; [exact Hf|]. right.
    exists len, rv, es, pre, t, post, vs, ev, regs, extra. simpl in Hev, Htm. rewrite app_nil_r in Hev, Htm. auto 12.
Qed.

Theorem enumerate_sound m fail root useX s :
  bytes_ok m -> root < two64 ->
  enumerateTables m fail root useX = (s, IOk) ->
  exists len rootRev es vs ev regs,
    tbl_len m root len /\ sums_to_zero m root len /\ m (w64 (root + 8)) = Some rootRev /\
    (36 <= len -> root_lists m root len useX es) /\
    walk m rootRev es vs ev regs /\
    st_events s = List.rev ev /\ st_tmap s = List.rev regs.
Proof. intros Hok Hroot H. exact (proj2 (enumerate_by_result m fail root useX s IOk Hok Hroot H)). Qed.

Lemma driverInit_ok m fail root useX s info :
  driverInit m fail root useX = (s, IOk, info) -> enumerateTables m fail root useX = (s, IOk).
Proof.
  unfold driverInit. destruct (enumerateTables m fail root useX) as [s0 r]. destruct r; try (intros H; inversion H; fail).
  destruct (info_lines m (canon (st_tmap s0))); intros H; inversion H. reflexivity.
Qed.

(** DriverInit hands the error through (printTableInfo is not reached) *)
Lemma driverInit_err m fail root useX s info :
  driverInit m fail root useX = (s, IErrMap, info) ->
  enumerateTables m fail root useX = (s, IErrMap) /\ info = [].
Proof.
  unfold driverInit. destruct (enumerateTables m fail root useX) as [s0 r].
  destruct r; try (intros H; inversion H; subst; auto; fail).
  destruct (info_lines m (canon (st_tmap s0))); intros H; inversion H.
Qed.

(** ---- the reports, in enumeration order ---- *)
(** the tables visited: the listed entries in order, the DSDT right after its checksum-valid FADT *)
Inductive visits (m : mem) (rev : N) : list N -> list N -> Prop :=
| vis_nil : visits m rev [] []
| vis_bad t len es vs : tbl_bad m t len -> visits m rev es vs -> visits m rev (t :: es) (t :: vs)
| vis_good t s es vs : tbl_good m t -> tbl_sig m t s -> s <> FACP -> visits m rev es vs -> visits m rev (t :: es) (t :: vs)
| vis_fadt f d es vs : tbl_good m f -> tbl_sig m f FACP -> fadt_dsdt m rev f d ->
    visits m rev es vs -> visits m rev (f :: es) (f :: d :: vs).

(** the reports a list of visited tables produces: one line per table whose bytes do not sum to 0,
    in order, carrying the table's signature, address and length field (what the log line
    "%s at 0x%16x %6x [checksum mismatch; skipping]" prints); nothing for the others *)
Inductive reports (m : mem) : list N -> list event -> Prop :=
| rep_nil : reports m [] []
| rep_bad t s len vs ev : tbl_bad m t len -> tbl_sig m t s -> reports m vs ev ->
    reports m (t :: vs) (EvMismatch s t len :: ev)
| rep_good t vs ev : tbl_good m t -> reports m vs ev -> reports m (t :: vs) ev.

Lemma walk_visits_reports m rev es vs ev regs : walk m rev es vs ev regs ->
  visits m rev es vs /\ reports m vs ev.
Proof.
  intros H. induction H as [| t0 len0 sg es vs ev regs Hb Hsg Hw [IH1 IH2] | t0 sg es vs ev regs Hg Hsg Hne Hw [IH1 IH2]
                 | f d sd es vs ev regs Hg Hsg Hd Hgd Hsd Hw [IH1 IH2] | f d sd len0 es vs ev regs Hg Hsg Hd Hbd Hsd Hw [IH1 IH2]].
  - split; constructor.
  - split; [eapply vis_bad; eauto | eapply rep_bad; eauto].
  - split; [eapply vis_good; eauto | eapply rep_good; eauto].
  - split; [eapply vis_fadt; eauto | apply rep_good; [exact Hg|]; apply rep_good; [exact Hgd | exact IH2]].
  - split; [eapply vis_fadt; eauto | apply rep_good; [exact Hg|]; eapply rep_bad; eauto].
Qed.

Lemma tbl_bad_len_fun m t l1 l2 : tbl_bad m t l1 -> tbl_bad m t l2 -> l1 = l2.
Proof. intros [H1 _] [H2 _]. eapply field_fun; eauto. Qed.

Lemma reports_fun m : forall vs ev1 ev2, reports m vs ev1 -> reports m vs ev2 -> ev1 = ev2.
Proof.
  intros vs ev1 ev2 H1. revert ev2.
  induction H1 as [| t s len vs ev Hb Hs Hr IH | t vs ev Hg Hr IH]; intros ev2 H2; inversion H2; subst.
  - reflexivity.
  - f_equal; [|apply IH; assumption].
    match goal with Hb' : tbl_bad m t ?l, Hs' : tbl_sig m t ?s' |- _ =>
      rewrite (tbl_bad_len_fun m t _ _ Hb Hb'), (field_fun _ _ _ _ _ Hs Hs') end. reflexivity.
  - exfalso. eapply good_bad_excl; eauto.
  - exfalso. eapply good_bad_excl; eauto.
  - apply IH. assumption.
Qed.

Lemma visits_fun m rev : forall es vs1 vs2, visits m rev es vs1 -> visits m rev es vs2 -> vs1 = vs2.
Proof.
  intros es vs1 vs2 H1. revert vs2.
  induction H1 as [| t len es vs Hb Hv IH | t s es vs Hg Hs Hne Hv IH | f d es vs Hg Hs Hd Hv IH];
    intros vs2 H2; inversion H2; subst; try reflexivity;
    try (f_equal; apply IH; assumption);
    try (exfalso; eapply good_bad_excl; eauto; fail).
  - exfalso. apply Hne. eapply FACP_sig; eauto.
  - exfalso. match goal with Hn : _ <> FACP |- _ => apply Hn end. eapply FACP_sig; eauto.
  - match goal with Hd' : fadt_dsdt m rev f ?d' |- _ => rewrite (fadt_dsdt_fun _ _ _ _ _ Hd Hd') end.
    f_equal. f_equal. apply IH. assumption.
Qed.

Theorem reports_in_order m fail root useX s info :
  bytes_ok m -> root < two64 -> no_seam_failure fail ->
  driverInit m fail root useX = (s, IOk, info) ->
  exists rootRev es vs ev,
    m (w64 (root + 8)) = Some rootRev /\
    (forall len, tbl_len m root len -> 36 <= len -> root_lists m root len useX es) /\
    visits m rootRev es vs /\ reports m vs ev /\ st_events s = List.rev ev /\
    (forall vs', visits m rootRev es vs' -> vs' = vs) /\
    (forall ev', reports m vs ev' -> ev' = ev).
Proof.
  intros Hok Hroot Hf Hd. apply driverInit_ok in Hd.
  destruct (enumerate_sound m fail root useX s Hok Hroot Hd) as (len & rv & es & vs & ev & regs & Hl & Hz & Hrv & Hrl & Hw & Hev & Htm).
  destruct (walk_visits_reports m rv es vs ev regs Hw) as [Hv Hr].
  exists rv, es, vs, ev. split; [exact Hrv|]. split.
  { intros len' Hl' H36. unfold tbl_len in *. rewrite (field_fun _ _ _ _ _ Hl' Hl) in *. apply Hrl. exact H36. }
  split; [exact Hv|]. split; [exact Hr|]. split; [exact Hev|]. split.
  - intros vs' Hv'. eapply visits_fun; eauto.
  - intros ev' Hr'. eapply reports_fun; eauto.
Qed.
