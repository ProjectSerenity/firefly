(** C13 - tie BY TRANSLATION, the lookup pair (see Props/C13_trans.v for the setting): Find and findRelative of
    obj_tree.go.  In the regenerated Gen/Trans_aml_tree.v they are nested `gloop`s over Go int indices into the []byte
    expression (labelled continues as flags); the model (Aml/Tree.v) recurses on the expression as a list.  They are
    proved equal by simulation (Aml/TreeTransF.v, Aml/TreeTransG.v): the model's remaining list is `skipn index expr`.
    Hypotheses of the theorems, and nothing else:
      - the expression is shorter than 2^62 bytes (Go ints are two's complement in 64 bits; a slice cannot be longer);
      - fuel: the translation hands ONE fuel to all its loops; it must exceed the length of the expression + 5 (the
        loops over the expression and the 4-byte compare) and, for the model's own functions, reach the model's
        [chain_fuel t] = pool length + 1;
      - for the model's own functions: the model's answer is not OutOfFuel (the model walks sibling / parent chains on
        [chain_fuel t]; it says OutOfFuel only on a cyclic chain, which C13_find_total excludes for well-formed trees).
    Then for EVERY tree (well-formed or not), scope index and byte string the translation returns the model's index and the
    unchanged tree, and panics (nil dereference of an ObjectAt result) exactly where the model does.
    The `_fuelled` theorems drop the last hypothesis: against the model with the walk fuel as a parameter
    ([TF.findRelative_go_f], [TG.Find_f]: the text of the model with `chain_fuel t` replaced by the fuel,
    C13_fuelled_model_is_the_model) the translation is equal outright, GFuel exactly where that model says OutOfFuel.
    Statements; the last theorem puts two lemmas of those files together. *)
From Coq Require Import NArith List.
From FF Require Import Lib.GoOps Lib.GoPool Gen.Consts_aml_tree Gen.Trans_aml_tree Aml.Stream Aml.Tree.
From FF Require Aml.TreeTrans Aml.TreeTransF Aml.TreeTransG.
Module TT := FF.Aml.TreeTrans.
Module TF := FF.Aml.TreeTransF.
Module TG := FF.Aml.TreeTransG.
Import ListNotations.
Local Open Scope N_scope.

Theorem C13_findRelative_is_translation :
  forall (V : Type) (t : ObjectTree V) (scopeIndex : N) (expr : list N) (fuel : nat),
    N.of_nat (length expr) < 2 ^ 62 -> (length expr + 5 < fuel)%nat -> (chain_fuel t <= fuel)%nat ->
    findRelative t scopeIndex expr <> OutOfFuel ->
    go_aml_ObjectTree_findRelative fuel (TT.tr_tree t) scopeIndex expr =
    TT.lift (fun r => (TT.tr_tree t, r)) (findRelative t scopeIndex expr).
Proof. exact @TF.findRelative_is_translation. Qed.
Print Assumptions C13_findRelative_is_translation.

Theorem C13_find_is_translation :
  forall (V : Type) (t : ObjectTree V) (scopeIndex : N) (expr : list N) (fuel : nat),
    N.of_nat (length expr) < 2 ^ 62 -> (length expr + 5 < fuel)%nat -> (chain_fuel t <= fuel)%nat ->
    Find t scopeIndex expr <> OutOfFuel ->
    go_aml_ObjectTree_Find fuel (TT.tr_tree t) scopeIndex expr =
    TT.lift (fun r => (TT.tr_tree t, r)) (Find t scopeIndex expr).
Proof. exact @TG.Find_is_translation. Qed.
Print Assumptions C13_find_is_translation.

(** the same fuel on both sides: equal outright, GFuel where the fuelled model says OutOfFuel *)
Theorem C13_findRelative_fuelled_is_translation :
  forall (V : Type) (expr : list N), N.of_nat (length expr) < 2 ^ 62 ->
  forall (t : ObjectTree V) (fuel : nat), (length expr + 5 < fuel)%nat ->
  forall scopeIndex : N,
    go_aml_ObjectTree_findRelative fuel (TT.tr_tree t) scopeIndex expr =
    TT.lift (fun r => (TT.tr_tree t, r)) (TF.findRelative_go_f fuel false t scopeIndex expr).
Proof. exact @TF.findRelative_fuelled. Qed.
Print Assumptions C13_findRelative_fuelled_is_translation.

Theorem C13_find_fuelled_is_translation :
  forall (V : Type) (t : ObjectTree V) (scopeIndex : N) (expr : list N) (fuel : nat),
    N.of_nat (length expr) < 2 ^ 62 -> (length expr + 5 < fuel)%nat ->
    go_aml_ObjectTree_Find fuel (TT.tr_tree t) scopeIndex expr =
    TT.lift (fun r => (TT.tr_tree t, r)) (TG.Find_f fuel t scopeIndex expr).
Proof. exact @TG.Find_fuelled. Qed.
Print Assumptions C13_find_fuelled_is_translation.

(** the fuelled models at the model's own fuel ARE the model *)
Theorem C13_fuelled_model_is_the_model :
  forall (V : Type) (t : ObjectTree V) (scopeIndex : N) (expr : list N),
    TF.findRelative_go_f (chain_fuel t) false t scopeIndex expr = findRelative t scopeIndex expr /\
    TG.Find_f (chain_fuel t) t scopeIndex expr = Find t scopeIndex expr.
Proof.
  intros V t s e. split.
  - exact (TF.findRelative_go_f_chain t (length e) e false s (le_n _)).
  - exact (TG.Find_f_chain t s e).
Qed.
Print Assumptions C13_fuelled_model_is_the_model.
