(** C20 — the kernel build finds every runtime redirect, exactly once, reproducibly.
    Statements only; every proof is [exact <lemma>], the lemmas are in Kbuild/Proofs.v and Kbuild/BaselineProofs.v.
    The model (Kbuild/Model.v) is the repaired FindRedirects: a function of the source tree (list of
    files in walk order, each with its parsed declarations), so the same tree always gives the same
    table; what the theorems add is WHICH table. *)
From Coq Require Import NArith List Sorted Permutation.
From FF Require Import Gen.Consts_kbuild Kbuild.Model Kbuild.Proofs Kbuild.Baseline Kbuild.BaselineProofs.
Import ListNotations.
Local Open Scope N_scope.

(** complete + sound: an entry (src, dst) is in the table iff some non-test .go file has a FUNCTION
    declaration one of whose doc-comment lines starts with the directive; src is the rest of that
    line with surrounding white space removed, dst is <prefix>/<dir>.<Name>. *)
Theorem C20_complete_sound :
  forall (t : tree) (e : redirect),
    In e (find_redirects t) <->
    exists f d line,
      In f t /\ is_source (f_name f) = true /\ In d (f_decls f) /\ d_kind d = KFunc /\
      In line (d_doc d) /\ has_prefix kbuild_redirectComment line = true /\
      fst e = trim_space (skipn (length kbuild_redirectComment) line) /\
      snd e = pkg_path (f_dir f) ++ dot :: d_name d.
Proof. exact table_sound_complete. Qed.
Print Assumptions C20_complete_sound.

(** exactly once: the table positions are in bijection with the annotation sites
    (file index, declaration index, doc-line index): every site contributes one entry, no site two
    (several annotations on one function are several sites and give several entries). *)
Theorem C20_exactly_once :
  forall t : tree,
    exists ss : list (site * redirect),
      map snd ss = find_redirects t /\
      NoDup (map fst ss) /\
      (forall s e, In (s, e) ss <-> is_site t s e).
Proof. exact table_exactly_once. Qed.
Print Assumptions C20_exactly_once.

(** ordered: moreover the entries appear in (file, declaration, line) order — the order is a
    function of the tree alone. *)
Theorem C20_ordered :
  forall t : tree,
    exists ss : list (site * redirect),
      map snd ss = find_redirects t /\
      StronglySorted lex_lt (map fst ss) /\
      (forall s e, In (s, e) ss <-> is_site t s e).
Proof. exact table_ordered. Qed.
Print Assumptions C20_ordered.

(** the number of entries is the number of annotation lines on functions of source files *)
Theorem C20_table_length :
  forall t : tree, length (find_redirects t) = count_tree t.
Proof. exact table_length. Qed.
Print Assumptions C20_table_length.

(** a function gives one entry per annotation line of its doc comment, in line order, all naming that function *)
Theorem C20_several_annotations :
  forall pkg d, d_kind d = KFunc ->
    redirects_of_decl pkg d =
      map (fun line => (trim_space (skipn (length kbuild_redirectComment) line), pkg ++ dot :: d_name d))
          (filter (has_prefix kbuild_redirectComment) (d_doc d)).
Proof. exact decl_entries. Qed.
Print Assumptions C20_several_annotations.

(** nothing else: deleting every test / non-.go file, every non-function declaration, every doc line
    that is not an annotation, every other comment (bodies, detached, on specs) and the layout leaves
    the table unchanged. *)
Theorem C20_nothing_else :
  forall t : tree, find_redirects (strip_tree t) = find_redirects t.
Proof. exact table_ignores_the_rest. Qed.
Print Assumptions C20_nothing_else.

(** the file filter: exactly the names ending in ".go" but not in "_test.go" *)
Theorem C20_source_files :
  forall name, is_source name = true <-> (exists r, name = r ++ ext_go) /\ ~ (exists r, name = r ++ suffix_test).
Proof. exact is_source_spec. Qed.
Print Assumptions C20_source_files.

(** the text functions mean what their names say *)
Theorem C20_has_prefix : forall p s, has_prefix p s = true <-> exists r, s = p ++ r.
Proof. exact has_prefix_spec. Qed.
Print Assumptions C20_has_prefix.

Theorem C20_trim_space :
  forall s, exists a b, s = a ++ trim_space s ++ b /\ all_space a /\ all_space b /\
    (match trim_space s with [] => True | c :: _ => is_space c = false end) /\
    (match rev (trim_space s) with [] => True | c :: _ => is_space c = false end).
Proof. exact trim_space_spec. Qed.
Print Assumptions C20_trim_space.

(** ---- the code before the repair (5ad9c86) ----
    It visited a file's declarations in Go-map order, modelled as an arbitrary permutation [sigma] of
    the declarations chosen anew on every run (Kbuild/Baseline.v).  The content of its table was
    right for every sigma ... *)
Theorem C20_baseline_content :
  forall (sigma : list decl -> list decl) (t : tree),
    (forall ds, Permutation (sigma ds) ds) ->
    Permutation (find_redirects_baseline sigma t) (find_redirects t).
Proof. exact baseline_content. Qed.
Print Assumptions C20_baseline_content.

(** ... but two runs (two sigmas) could give different tables: "same table in the same order" was false;
    the repaired code is [find_redirects_baseline] with sigma = identity, i.e. [find_redirects]. *)
Theorem C20_baseline_order_refuted :
  exists (t : tree) (s1 s2 : list decl -> list decl),
    (forall ds, Permutation (s1 ds) ds) /\ (forall ds, Permutation (s2 ds) ds) /\
    find_redirects_baseline s1 t <> find_redirects_baseline s2 t.
Proof. exact baseline_order_refuted. Qed.
Print Assumptions C20_baseline_order_refuted.
