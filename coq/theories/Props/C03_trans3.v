(** C03 / C01 - tie of the bitmap frame allocator to the source BY TRANSLATION, third part: the hand-over from the
    early-boot allocator, BitmapAllocator.reserveEarlyAllocatorFrames (kernel/mm/pmm/bitmap_allocator.go), which works
    on TWO structs: its receiver and the package-level [bootMemAllocator] (kernel/mm/pmm/bootmem_allocator.go).

        allocCount := bootMemAllocator.allocCount
        bootMemAllocator.allocCount, bootMemAllocator.lastAllocFrame = 0, 0
        for i := uint64(0); i < allocCount; i++ {
            frame, _ := bootMemAllocator.AllocFrame()
            alloc.markFrame(alloc.poolForFrame(frame), frame, markReserved)
        }

    Gen/Trans_pmm_bitmap.v is regenerated on every run by gen/gotrans (gen/gotrans/pmm_bitmap.json).  Config
    "gstructs" (gen/gotrans/ext_gstruct.go) threads the variable [bootMemAllocator] through the function as an in/out
    record [v_bootMemAllocator : go_pmm_BootMemAllocator] - every field of the Go struct is a field of the record, which is
    generated from the type declaration, so a field added to BootMemAllocator appears in it -, field assignments rebuild
    it, [bootMemAllocator.AllocFrame()] is a call of the translation of BootMemAllocator.AllocFrame (same generated
    file; its closure over multiboot.VisitMemRegions is a [gvisit] over the parameter [regions], config "visitors"),
    and the record is part of the loop state.  The function returns [GOk (allocator record, bootMemAllocator record)].

    The model is [reserve_early] (Pmm/Bitmap.v): the function [pmm_init] runs for the hand-over, about which the init
    theorems (C01_early_frames_good, C03 init statistics) are proved; it iterates [boot_alloc] from [boot_reset] - the
    replay of C02_boot_replay - and [mark_reserved] at [pool_for_frame].  Equality holds for EVERY allocator state, boot
    allocator state and region list: both final records, and the index-out-of-range panics of markFrame; a panic ends
    the Go loop while the model keeps it as a sticky outcome.  Side conditions: the pool slice has an int length, allocCount
    is a uint64 (at 2^64 or more the model's loop count and the 64-bit counter would differ), fuel above the number of pools
    and above allocCount.  [B3.to_gb ka kb ks ke st] is the bootMemAllocator record with the model state [st] and the four
    kernel fields; [B3.to_gr] maps a model region to a memory-map entry; both onto.
    NOT covered: the contract of multiboot.VisitMemRegions (property C10), as for C02's tie (Props/C02_trans.v); that
    nothing else touches bootMemAllocator between its last use and the hand-over is pmm.Init's call order.
    Statements only; proofs are in Pmm/BitmapTrans3.v. *)
From Coq Require Import NArith String List.
From FF Require Import Lib.GoOps Lib.GoVisit Gen.Consts_mm_pmm Gen.Trans_pmm_bitmap Pmm.Boot Pmm.Bitmap.
From FF Require Pmm.BitmapTrans Pmm.BitmapTrans3.
Module B := FF.Pmm.BitmapTrans.
Module B3 := FF.Pmm.BitmapTrans3.
Import ListNotations.
Local Open Scope N_scope.

(** the copy of BootMemAllocator.AllocFrame inside Gen/Trans_pmm_bitmap.v (the callee of the replay) is the model's
    [boot_alloc], exactly as C02_bootAllocFrame_is_translation states for C02's copy *)
Theorem C03_bootAllocFrame_is_translation :
  forall (ka kb ks ke : N) (st : bstate) (m : memmap),
    go_pmm_BootMemAllocator_AllocFrame (B3.to_gb ka kb ks ke st) (map B3.to_gr m) =
    GOk (B3.to_gb ka kb ks ke (fst (boot_alloc m ks ke st)),
         match snd (boot_alloc m ks ke st) with
         | Some f => (f, None)
         | None => (mm_InvalidFrame, Some "errBootAllocOutOfMemory"%string)
         end).
Proof. exact B3.bootAllocFrame_is_translation. Qed.
Print Assumptions C03_bootAllocFrame_is_translation.

Theorem C03_reserveEarlyAllocatorFrames_is_translation :
  forall (mtx : bool) (a : balloc) (tr : list gevent) (ka kb ks ke : N) (bst : bstate) (m : memmap) (fuel : nat),
    N.of_nat (length (a_pools a)) < 2 ^ 63 -> (length (a_pools a) < fuel)%nat ->
    b_count bst < 2 ^ 64 -> (N.to_nat (b_count bst) < fuel)%nat ->
    go_pmm_BitmapAllocator_reserveEarlyAllocatorFrames fuel (B.to_ga mtx a tr) (B3.to_gb ka kb ks ke bst) (map B3.to_gr m) =
    match reserve_early m ks ke a bst with
    | (bst', Ok a') => GOk (B.to_ga mtx a' tr, B3.to_gb ka kb ks ke bst')
    | (_, Panic) => GPanic
    | (_, Hang) => GFuel
    end.
Proof. exact B3.reserveEarlyAllocatorFrames_is_translation. Qed.
Print Assumptions C03_reserveEarlyAllocatorFrames_is_translation.

(** every bootMemAllocator record and every list of memory-map entries is the image of a model value *)
Theorem C03_trans3_abstraction_onto :
  (forall g : go_pmm_BootMemAllocator, exists ka kb ks ke st, g = B3.to_gb ka kb ks ke st) /\
  (forall gs : list go_multiboot_MemoryMapEntry, exists m, gs = map B3.to_gr m).
Proof. exact (conj B3.to_gb_onto B3.to_gr_list_onto). Qed.
Print Assumptions C03_trans3_abstraction_onto.

(** ---- BitmapAllocator.init: the call order of the hand-over ----
        if err := alloc.setupPoolBitmaps(); err != nil { return err }
        alloc.reserveKernelFrames(); alloc.reserveEarlyAllocatorFrames(); alloc.printStats(); return nil
    setupPoolBitmaps (unsafe slice headers, vmm seams) and printStats (kfmt) are NOT translated (config "opaquecalls"):
    each is the event [GEv name []] on the allocator's trace, so their position in the call order is part of the result;
    what setupPoolBitmaps does to the two structs and the error it returns come from the ORACLE [o], a parameter of the
    translation applied to the allocator (already carrying the event) and the bootMemAllocator record.  printStats is
    assumed to change nothing.  reserveKernelFrames reads kernelStartFrame / kernelEndFrame from the record the oracle left.
    For EVERY pair of records and EVERY oracle, writing the oracle's answer as (B.to_ga mtx a0 tr0, B3.to_gb ka kb ks ke b0, err)
    (always possible, the maps are onto): an error is returned at once with the oracle's records and no further call;
    otherwise the result is the model's [B3.init_tail m ks ke a0 b0] = [reserve_kernel] then [reserve_early], followed by
    the printStats event.  Side conditions = those of the two parts (sizes, kernelEndFrame < 2^64-1, allocCount a uint64, fuel). *)
Theorem C03_init_is_translation :
  forall (ga : go_pmm_BitmapAllocator) (gb : go_pmm_BootMemAllocator)
         (o : go_pmm_BitmapAllocator -> go_pmm_BootMemAllocator -> go_pmm_BitmapAllocator * go_pmm_BootMemAllocator * option string)
         (mtx : bool) (a0 : balloc) (tr0 : list gevent) (ka kb ks ke : N) (b0 : bstate) (err : option string)
         (m : memmap) (fuel : nat),
    o (set_f_BitmapAllocator_trace ga (GEv "setupPoolBitmaps" [] :: f_BitmapAllocator_trace ga)) gb =
      (B.to_ga mtx a0 tr0, B3.to_gb ka kb ks ke b0, err) ->
    N.of_nat (length (a_pools a0)) < 2 ^ 63 -> (length (a_pools a0) < fuel)%nat ->
    ke < 2 ^ 64 - 1 -> (N.to_nat (ke + 1 - ks) < fuel)%nat ->
    b_count b0 < 2 ^ 64 -> (N.to_nat (b_count b0) < fuel)%nat ->
    go_pmm_BitmapAllocator_init fuel ga gb o (map B3.to_gr m) =
    match err with
    | Some e => GOk (B.to_ga mtx a0 tr0, (Some e, B3.to_gb ka kb ks ke b0))
    | None =>
        match B3.init_tail m ks ke a0 b0 with
        | Ok (a2, b') => GOk (B.to_ga mtx a2 (GEv "printStats" [] :: tr0), (None, B3.to_gb ka kb ks ke b'))
        | Panic => GPanic
        | Hang => GFuel
        end
    end.
Proof. exact B3.init_is_translation. Qed.
Print Assumptions C03_init_is_translation.

(** [init_tail] is the tail of the model's [pmm_init] (about which C01_early_frames_good and C03's init statistics are
    proved): whenever the model's set-up part - its model of setupPoolBitmaps - succeeds, leaving the boot allocator in
    [b], pmm.Init's result is that of [init_tail] on the fresh pools. *)
Theorem C03_pmm_init_is_setup_then_tail :
  forall (m : memmap) (kstart kend limit mapfail : N) (b : bstate) (calls : list mapcall),
    let ks := kernel_start_frame kstart in
    let ke := kernel_end_frame kend in
    let npools := fst (fst (pass1 m 0)) in
    let total := snd (fst (pass1 m 0)) in
    let bytes := required_bytes npools (snd (pass1 m 0)) in
    (limit <? bytes) = false ->
    map_pages m ks ke (N.shiftr bytes PageShift) mapfail = MGo b calls ->
    (N.of_nat (length (pass2 m)) =? npools) = true ->
    (bytes <? layout_bytes m npools) = false ->
    fst (pmm_init m kstart kend limit mapfail) =
    match B3.init_tail m ks ke (mkBA total 0 (pass2 m)) b with
    | Ok (a, b') => InitOk a b'
    | Panic => InitPanic
    | Hang => InitHang
    end.
Proof. exact B3.pmm_init_tail. Qed.
Print Assumptions C03_pmm_init_is_setup_then_tail.
