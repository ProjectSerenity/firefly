(** C18 for the shipped text-mode console, down to the framebuffer (the "sync_pixels" corollary of
    DESIGN.md for text mode).  Statement only; the proof is [exact] a lemma of Tty/VtVgaSync.v,
    which composes the simulation behind C18_sync_inv ([boot_sim], [shows_run]) with the refinement lemmas of the
    C19 development
    (Console/VgaProofs.v: vga_write_refines, vga_fill_refines, vga_scroll_refines). *)
From Coq Require Import NArith List.
From FF Require Import Lib.Word Gen.Consts_device_video_console Console.Mem Console.Vga Console.VgaProofs.
From FF Require Import Gen.Consts_device_tty Tty.Vt Tty.VtSpec Tty.VtCons Tty.VtVgaSync.
Import ListNotations.
Local Open Scope N_scope.

(** A terminal attached to a [w] x [h] VgaTextConsole (whose default colours it adopts) over any
    framebuffer [m0] of [w*h] 16-bit elements.  For every history: the driver model
    ([vga_write]/[vga_fill]/[vga_scroll] of Console/Vga.v, bounds-checked, uint32 arithmetic)
    executes every console call of the terminal's trace without panicking, and if the terminal is
    active then every element of the framebuffer is the text-mode value
    [((bg<<4 | fg)<<8) | ch] of the viewport cell it displays (a colour above the 16-colour
    palette showing as the console's default, as vga_text.go documents). *)
Theorem C18_sync_text :
  forall w h sb tab (ops : list op) (m0 : fbuf),
    1 <= w -> 1 <= h -> tab <= 255 -> w * (h + sb) * 3 < two32 -> Forall op_wf ops ->
    vga_wf (mkVga w h) m0 -> (forall i, i < flen m0 -> load m0 i < two16) ->
    exists v0 v m,
      attach (new_vt tab sb) w h vga_defaultFg vga_defaultBg = Ok v0 /\ run_ops v0 ops = Ok v /\
      vga_apply_calls (mkVga w h) m0 (rev (trace v)) = Mem.Ok m /\
      (st v = tty_StateActive ->
       forall x y, 1 <= x <= w -> 1 <= y <= h ->
         load m (cell_idx (mkVga w h) x y) = enc (v_cell v x y)).
Proof. exact sync_text_thm. Qed.
Print Assumptions C18_sync_text.

(** ---- the same for the shipped framebuffer console, down to the pixels ----
    Composition of the simulation behind C18_sync_inv with the refinement of Console/Grid.v by the model of VesaFbConsole
    (Console/VesaGridProofs.v) and its byte-level specifications (C19). *)
From FF Require Import Console.Vesa Console.VesaSpec Console.VesaProofs Tty.VtVesaSync Tty.VtVesaProofs.

(** A terminal attached to a VesaFbConsole [c] in the geometry C19 quantifies over ([vesa_wf]: any
    width, height, pitch >= row bytes, depth 8/15/16/24/32, colour layout, font 8..16 pixels wide,
    logo height, 256-entry palette) whose font has a blank space glyph (true of the three shipped
    fonts: C19_shipped_space_glyph_blank), over any framebuffer content [m0].  For every history
    the driver model ([vesa_write]/[vesa_fill]/[vesa_scroll], bounds-checked, uint32 arithmetic)
    executes every console call of the terminal's trace without panicking; the padding bytes between
    pixel rows and the logo rows never change; and if the terminal is active then EVERY byte of the
    framebuffer that is colour byte [k] of pixel (q, r) of a text cell (cx, cy) is byte [k] of the
    packed palette colour of that pixel: the cell's foreground where the glyph of the cell's
    character has its bit set, the cell's background elsewhere ([byte_shows]), the cell being the
    terminal's viewport cell. *)
Theorem C18_sync_pixels_fb :
  forall (c : vesa) (f : font) (d : depth) (m0 : fbuf) sb tab (ops : list op),
    vesa_wf c f d m0 -> tab <= 255 -> wchars c * (hchars c + sb) * 3 < two32 -> Forall op_wf ops ->
    (forall r q, r < f_gh f -> q < f_gw f -> glyph_bit f 32 r q = false) ->
    exists v0 v m,
      attach (new_vt tab sb) (wchars c) (hchars c) vesa_defaultFg vesa_defaultBg = Vt.Ok v0 /\
      run_ops v0 ops = Vt.Ok v /\
      vesa_apply_calls c m0 (rev (trace v)) = Mem.Ok m /\
      (forall i, protected c i -> load m i = load m0 i) /\
      (st v = tty_StateActive -> forall i, byte_shows c f d m v i).
Proof. exact sync_pixels_fb_thm. Qed.
Print Assumptions C18_sync_pixels_fb.
