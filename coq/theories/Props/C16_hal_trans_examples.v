(** Non-vacuity and concrete runs for Props/C16_hal_trans.v: the regenerated hal.go functions run by vm_compute. *)
From Coq Require Import NArith ZArith String List.
From FF Require Import Lib.Word Lib.GoOps Lib.GoOpsHal Gen.Consts_device_tty Gen.Trans_hal.
From FF Require Import Kfmt.Fmt Hal.Model Hal.HalTrans Props.C16_hal_trans.
Import ListNotations.
Local Open Scope N_scope.

(** a console (id 7) with logo and font support, a terminal (id 5), something else (id 9) *)
Definition pc : probed := mkProbed KConsole [] 0 0 0 None [] true true.
Definition pt : probed := mkProbed KTTY [] 0 0 0 None [] false false.
Definition po : probed := mkProbed KOther [] 0 0 0 None [] false false.
Definition bf (a b : N) : N := a * 1000 + b.            (* stands for logo.BestFit / font.BestFit *)
Definition calls_of (r : gres (go_hal_world * unit)) : list gcall :=
  match r with GOk (w, _) => rev (f_world_trace w) | _ => [] end.
Definition devs_of (r : gres (go_hal_world * unit)) : N * N :=
  match r with GOk (w, _) => (f_world_activeConsole w, f_world_activeTTY w) | _ => (0, 0) end.

(** a terminal is already active; the first console arrives: logo, font (best fit: none named), then the link *)
Definition st_t : hal := set_tty init_hal (Some 5).
Example C16_hal_run_console_after_tty :
  calls_of (go_hal_onDriverInit (to_w [] st_t) 0 8 1024 768 bf (impl_of 7 pc) bf false 0) =
  [GCall "SetLogo" [GNum 8; GNum 1024768]; GCall "SetFont" [GNum 8; GNum 1024768];
   GCall "AttachTo" [GNum 6; GNum 8]; GCall "kfmt.SetOutputSink" [GNum 6]; GCall "SetState" [GNum 6; GNum 1]] /\
  devs_of (go_hal_onDriverInit (to_w [] st_t) 0 8 1024 768 bf (impl_of 7 pc) bf false 0) = (8, 6).
Proof. vm_compute. split; reflexivity. Qed.

(** consoleLogo=off and a font found by name (reference 77): no SetLogo, SetFont(77) *)
Example C16_hal_run_logo_off :
  calls_of (go_hal_onDriverInit (to_w [] init_hal) 0 8 1024 768 bf (impl_of 7 pc) bf true 77) =
  [GCall "SetFont" [GNum 8; GNum 77]].
Proof. vm_compute. reflexivity. Qed.

(** a second console, a second terminal, another driver: nothing happens *)
Example C16_hal_run_second_console :
  calls_of (go_hal_onDriverInit (to_w [] (set_console init_hal (Some 3))) 0 8 0 0 bf (impl_of 7 pc) bf false 0) = [] /\
  devs_of (go_hal_onDriverInit (to_w [] (set_console init_hal (Some 3))) 0 8 0 0 bf (impl_of 7 pc) bf false 0) = (4, 0) /\
  devs_of (go_hal_onDriverInit (to_w [] st_t) 0 3 0 0 bf (impl_of 2 pt) bf false 0) = (0, 6) /\
  devs_of (go_hal_onDriverInit (to_w [] st_t) 0 10 0 0 bf (impl_of 9 po) bf false 0) = (0, 6).
Proof. vm_compute. repeat split; reflexivity. Qed.

(** the terminal arrives after the console: link *)
Example C16_hal_run_tty_after_console :
  calls_of (go_hal_onDriverInit (to_w [] (set_console init_hal (Some 7))) 0 6 0 0 bf (impl_of 5 pt) bf false 0) =
  [GCall "AttachTo" [GNum 6; GNum 8]; GCall "kfmt.SetOutputSink" [GNum 6]; GCall "SetState" [GNum 6; GNum 1]].
Proof. vm_compute. reflexivity. Qed.

(** linkTTYToConsole without a terminal: a call on a nil interface *)
Example C16_hal_run_link_nil : go_hal_linkTTYToConsole (to_w [] init_hal) = GPanic.
Proof. vm_compute. reflexivity. Qed.

(** Less on a list with orders -128, 0, 127 (DetectOrderEarly, ACPI, Last) *)
Definition dl : list driver := [mkDriver 1 (-128) None; mkDriver 2 0 None; mkDriver 3 127 None].
Example C16_hal_run_less :
  go_device_DriverInfoList_Less (to_w [] init_hal) (to_infos dl) 0 1 = GOk (to_w [] init_hal, true) /\
  go_device_DriverInfoList_Less (to_w [] init_hal) (to_infos dl) 2 0 = GOk (to_w [] init_hal, false) /\
  go_device_DriverInfoList_Less (to_w [] init_hal) (to_infos dl) 1 1 = GOk (to_w [] init_hal, false) /\
  go_device_DriverInfoList_Less (to_w [] init_hal) (to_infos dl) 3 0 = GPanic.
Proof. vm_compute. repeat split; reflexivity. Qed.

(** the hypothesis of the theorems is satisfiable: the model's steps return Ok on these states *)
Example C16_onConsoleInit_is_translation_nonvacuous :
  exists st', on_console_init 7 pc st_t = Ok st' /\ h_console st' = Some 7 /\ h_tty st' = Some 5 /\ h_sink st' = STTY 5.
Proof. eexists. split; [vm_compute; reflexivity|]. repeat split; reflexivity. Qed.
Example C16_onTTYInit_is_translation_nonvacuous :
  exists st', on_tty_init 5 (set_console init_hal (Some 7)) = Ok st' /\ h_sink st' = STTY 5.
Proof. eexists. split; [vm_compute; reflexivity|]. reflexivity. Qed.
Example C16_less_is_translation_nonvacuous :
  N.of_nat (length dl) < 9223372036854775808 /\ nth_error dl 0 = Some (mkDriver 1 (-128) None) /\
  (-128 <= d_order (mkDriver 1 (-128) None) <= 127)%Z.
Proof. vm_compute. repeat split; discriminate || reflexivity. Qed.

(** C16_link_is_translation with ALL hypotheses at a boot-like state: "hi" was logged into the early ring
    buffer before any device existed, then terminal 5 and console 7 became active.  The model's link returns Ok, the
    io.Copy contract delivers the buffered text to the terminal, and the theorem's conclusion holds there *)
Definition st_boot : hal :=
  set_console (set_tty (match run_logop (LStr [104; 105]) init_hal with Ok s => s | _ => init_hal end) (Some 5)) (Some 7).
Example C16_link_is_translation_real_input :
  exists st', h_tty st_boot = Some 5 /\ h_console st_boot = Some 7 /\ link st_boot = Ok st' /\
    In (EvWrite 5 [104; 105]) (h_trace st') /\
    go_hal_linkTTYToConsole (to_w [] st_boot) = GOk (to_w (link_calls 5 7 ++ []) st', tt) /\
    h_sink st' = STTY 5.
Proof.
  destruct (link st_boot) as [st'| |] eqn:E; [|vm_compute in E; discriminate..].
  exists st'. split; [reflexivity|]. split; [reflexivity|]. split; [reflexivity|].
  split; [vm_compute in E; injection E as <-; vm_compute; tauto|].
  destruct (C16_link_is_translation [] st_boot st' 5 7 eq_refl eq_refl E) as (A & _ & C).
  split; [exact A|]. rewrite C. vm_compute. reflexivity.
Qed.

(** C16_less_is_translation with all five hypotheses (i = 0, j = 1 of the list -128, 0, 127) *)
Example C16_less_is_translation_real_input :
  go_device_DriverInfoList_Less (to_w [] init_hal) (to_infos dl) 0 1 = GOk (to_w [] init_hal, true).
Proof.
  apply (C16_less_is_translation (to_w [] init_hal) dl 0 1 (mkDriver 1 (-128) None) (mkDriver 2 0 None)).
  - vm_compute; reflexivity.
  - reflexivity.
  - reflexivity.
  - vm_compute; split; discriminate.
  - vm_compute; split; discriminate.
Qed.

(** C16_onDriverInit_is_translation instantiated: console 7 arrives while terminal 5 is active (hypothesis by
    computation), conclusion used to read off the active devices *)
Example C16_onDriverInit_is_translation_real_input :
  exists st' calls,
    on_driver_init 7 pc st_t = Ok st' /\
    go_hal_onDriverInit (to_w [] st_t) 0 8 1024 768 bf (impl_of 7 pc) bf (h_logo_off st_t) 0 = GOk (to_w (calls ++ []) st', tt) /\
    h_console st' = Some 7 /\ h_tty st' = Some 5 /\ h_sink st' = STTY 5.
Proof.
  destruct (on_driver_init 7 pc st_t) as [st'| |] eqn:E; [|vm_compute in E; discriminate..].
  destruct (C16_onDriverInit_is_translation [] st_t st' 7 pc 0 1024 768 bf bf 0 E) as (calls & A & _ & _).
  exists st', calls. split; [reflexivity|]. split; [exact A|].
  vm_compute in E. injection E as <-. repeat split; reflexivity.
Qed.
