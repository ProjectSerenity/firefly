(** C13 - tie BY TRANSLATION: the callee pOpcodeTableIndex, and the three ties that used an oracle for it, closed.
    Props/C13_trans.v / C13_trans_q.v state newObject, newNamedObject and CreateDefaultScopes with the callee
    `pOpcodeTableIndex(opcode, true)` as an oracle instantiated with the MODEL's function ([TT.table_oracle]).  Here
    pOpcodeTableIndex (kernel/device/acpi/aml/parser_opcode_table.go) is itself regenerated by gen/gotrans
    ([go_aml_pOpcodeTableIndex], over the synthetic record [go_aml_world] - an empty trace, the function calls nothing;
    the [256]uint8 arrays opcodeMap / extendedOpcodeMap and len(pOpcodeTable) are the constants regenerated by the
    constants dump into Gen/Consts_aml_tree.v - the function uses no Go map) and proved equal to the model's
    [pOpcodeTableIndex] for every uint16 opcode: value (incl. the int arithmetic `uint8(len(pOpcodeTable) + int(opcode) -
    0x1fe)` for internal opcodes) and the index-out-of-range panic of `extendedOpcodeMap[opcode-0xff]` for opcodes above
    0x1fe.  The three ties are then restated with the oracle replaced by the TRANSLATED function ([TO.trans_oracle w]):
    no model function is left inside the translated side.  Hypothesis: the opcode is a uint16 (its Go type).
    The proofs are in Aml/TreeTransO.v; a concrete run closes the file. *)
From Coq Require Import NArith List.
From FF Require Import Lib.GoOps Lib.GoPool Gen.Consts_aml_tree Gen.Trans_aml_tree Aml.Stream Aml.Tree.
From FF Require Aml.TreeTrans Aml.TreeTransO.
Module TT := FF.Aml.TreeTrans.
Module TO := FF.Aml.TreeTransO.
Import ListNotations.
Local Open Scope N_scope.

Theorem C13_pOpcodeTableIndex_is_translation :
  forall (w : go_aml_world) (opcode : N) (allowInternalOp : bool),
    opcode < 2 ^ 16 ->
    go_aml_pOpcodeTableIndex w opcode allowInternalOp =
    TT.lift (fun v => (w, v)) (pOpcodeTableIndex opcode allowInternalOp).
Proof. exact TO.pOpcodeTableIndex_is_translation. Qed.
Print Assumptions C13_pOpcodeTableIndex_is_translation.

(** [TO.trans_oracle w opc b] = the value returned by the translated pOpcodeTableIndex, None if it panics *)
Theorem C13_newObject_is_translation_closed :
  forall (V : Type) (w : go_aml_world) (t : ObjectTree V) (opcode tableHandle : N),
    opcode < 2 ^ 16 ->
    go_aml_ObjectTree_newObject (TT.tr_tree t) opcode tableHandle (TO.trans_oracle w) =
    TT.lift (fun '(t', p) => (TT.tr_tree t', Some p)) (newObject t opcode tableHandle).
Proof. exact @TO.newObject_is_translation_closed. Qed.
Print Assumptions C13_newObject_is_translation_closed.

Theorem C13_newNamedObject_is_translation_closed :
  forall (V : Type) (w : go_aml_world) (t : ObjectTree V) (opcode tableHandle : N) (nm : Name),
    opcode < 2 ^ 16 ->
    go_aml_ObjectTree_newNamedObject (TT.tr_tree t) opcode tableHandle (name_bytes nm) (TO.trans_oracle w) =
    TT.lift (fun '(t', p) => (TT.tr_tree t', Some p)) (newNamedObject t opcode tableHandle nm).
Proof. exact @TO.newNamedObject_is_translation_closed. Qed.
Print Assumptions C13_newNamedObject_is_translation_closed.

Theorem C13_CreateDefaultScopes_is_translation_closed :
  forall (V : Type) (w : go_aml_world) (t : ObjectTree V) (tableHandle : N),
    go_aml_ObjectTree_CreateDefaultScopes (TT.tr_tree t) tableHandle (TO.trans_oracle w) =
    TT.lift (fun t' => (TT.tr_tree t', tt)) (CreateDefaultScopes t tableHandle).
Proof. exact @TO.CreateDefaultScopes_is_translation_closed. Qed.
Print Assumptions C13_CreateDefaultScopes_is_translation_closed.

(** a concrete run: an ordinary opcode, an internal opcode (pOpIntScopeBlock), and the out-of-range panic *)
Example C13_trans_run_pOpcodeTableIndex :
  go_aml_pOpcodeTableIndex (mk_go_aml_world nil) 0x10 true = GOk (mk_go_aml_world nil, 9) /\
  (match go_aml_pOpcodeTableIndex (mk_go_aml_world nil) tree_pOpIntScopeBlock true with
   | GOk (_, v) => Ok v | GPanic => Panic | GFuel => OutOfFuel end) = pOpcodeTableIndex tree_pOpIntScopeBlock true /\
  go_aml_pOpcodeTableIndex (mk_go_aml_world nil) 0x1ff true = GPanic.
Proof. vm_compute. repeat split. Qed.
