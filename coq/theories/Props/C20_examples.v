(** Non-vacuity and concrete runs for the C20 theorems. *)
From Coq Require Import NArith List Sorted Lia Permutation.
From FF Require Import Gen.Consts_kbuild Kbuild.Model Kbuild.Proofs Kbuild.Baseline Kbuild.BaselineProofs.
Import ListNotations.
Local Open Scope N_scope.

(* "//go:redirect-from runtime.a " , "// doc", "//go:nosplit" *)
Definition ann (sym : text) : text := kbuild_redirectComment ++ 32 :: sym ++ [32].
Definition doc_line : text := [47; 47; 32; 100].
Definition nosplit : text := [47; 47; 103; 111; 58; 110; 111; 115; 112; 108; 105; 116].

Definition f_go : text := [102; 46; 103; 111].                       (* f.go *)
Definition f_test_go : text := [102; 95; 116; 101; 115; 116; 46; 103; 111].  (* f_test.go *)
Definition readme : text := [82; 69].

Definition ex_tree : tree :=
  [ mkFile [] f_go
      [ mkDecl KFunc [70] [doc_line; ann [97]; nosplit; ann [98]] [ann [120]] 0;      (* F: two annotations; one look-alike in the body *)
        mkDecl KVar [86] [ann [99]] [] 1;                                              (* var V with a look-alike *)
        mkDecl KFunc [71] [ann [100]] [] 1 ];                                          (* G *)
    mkFile [[109]] f_test_go [ mkDecl KFunc [84] [ann [101]] [] 0 ];                   (* m/f_test.go *)
    mkFile [[109]] readme [ mkDecl KFunc [84] [ann [101]] [] 0 ];
    mkFile [[109]; [110]] f_go [ mkDecl KFunc [72] [ann [102]] [] 0 ] ].               (* m/n/f.go: H *)

Example C20_run_example :
  find_redirects ex_tree =
    [ ([97], kbuild_pkgPrefix ++ [46; 70]); ([98], kbuild_pkgPrefix ++ [46; 70]);
      ([100], kbuild_pkgPrefix ++ [46; 71]);
      ([102], kbuild_pkgPrefix ++ [47; 109; 47; 110; 46; 72]) ].
Proof. vm_compute. reflexivity. Qed.

(** the right-hand side of C20_complete_sound is inhabited (and so is the left) *)
Example C20_complete_sound_nonvacuous :
  exists f d line,
    In f ex_tree /\ is_source (f_name f) = true /\ In d (f_decls f) /\ d_kind d = KFunc /\
    In line (d_doc d) /\ has_prefix kbuild_redirectComment line = true /\
    trim_space (skipn (length kbuild_redirectComment) line) = [98].
Proof.
  exists (nth 0 ex_tree (mkFile [] [] [])), (mkDecl KFunc [70] [doc_line; ann [97]; nosplit; ann [98]] [ann [120]] 0), (ann [98]).
  repeat split; try reflexivity; cbn; auto 10.
Qed.

(** sites of the example: three in file 0 (two on declaration 0), one in file 3 *)
Example C20_sites_example :
  map fst (sites ex_tree) = [(0, 0, 1); (0, 0, 3); (0, 2, 0); (3, 0, 0)]%nat.
Proof. vm_compute. reflexivity. Qed.

Example C20_is_site_nonvacuous : is_site ex_tree (0, 0, 3)%nat ([98], kbuild_pkgPrefix ++ [46; 70]).
Proof. apply in_sites. vm_compute. auto. Qed.

Example C20_count_example : count_tree ex_tree = 4%nat.
Proof. vm_compute. reflexivity. Qed.

Example C20_strip_example : length (strip_tree ex_tree) = 2%nat /\ strip_tree ex_tree <> ex_tree.
Proof. split; [vm_compute; reflexivity | discriminate]. Qed.

Example C20_several_annotations_nonvacuous :
  d_kind (mkDecl KFunc [70] [doc_line; ann [97]; nosplit; ann [98]] [] 0) = KFunc.
Proof. reflexivity. Qed.

Example C20_source_files_examples :
  is_source f_go = true /\ is_source f_test_go = false /\ is_source readme = false /\
  is_source suffix_test = false /\ is_source ext_go = true.
Proof. vm_compute. auto. Qed.

Example C20_trim_space_example : trim_space [32; 9; 97; 32; 98; 13; 10] = [97; 32; 98].
Proof. vm_compute. reflexivity. Qed.

Example C20_has_prefix_example :
  has_prefix kbuild_redirectComment (ann [97]) = true /\ has_prefix kbuild_redirectComment nosplit = false.
Proof. vm_compute. auto. Qed.

(** a permuting sigma other than the identity exists (hypothesis of C20_baseline_content) *)
Example C20_baseline_content_nonvacuous :
  (forall ds : list decl, Permutation (rev ds) ds) /\
  find_redirects_baseline (@rev decl) two_funcs = rev (find_redirects two_funcs) /\
  length (find_redirects two_funcs) = 2%nat.
Proof. split; [intros ds; apply Permutation_sym, Permutation_rev|]. vm_compute. auto. Qed.
