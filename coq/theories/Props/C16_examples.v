(** Non-vacuity and concrete runs for C16. *)
From Coq Require Import NArith ZArith List Permutation Sorted Lia.
From FF Require Import Lib.Word Gen.Consts_kfmt Kfmt.Fmt Kfmt.Ring Kfmt.RingProofs Kfmt.Prefix Kfmt.PrefixProofs Hal.Model Hal.Spec Hal.HalProofs.
Import ListNotations.
Local Open Scope N_scope.

(** The indices after the wrapping writes and the shape of the drain (two chunks: up to the end of the array,
    then from its start).  Evaluated by need: neither the stored bytes nor the bytes read are forced.  What
    the ring holds and what the drain delivers comes from the FIFO theorem. *)
Lemma wrapped_shape :
  match ring_writes empty_ring [repeat 65 capacity; [66; 67]] with
  | Ok rb => (rIdx rb, wIdx rb) = (2, 1) /\
             match drain drain_fuel rb with
             | Ok (cs, rb') => length cs = 2%nat /\ rIdx rb' = wIdx rb'
             | _ => False end
  | _ => False end.
Proof. lazy. auto. Qed.

(** ring: a consistent non-empty, wrapped ring exists ([capacity] bytes 'A' then "BC": the oldest two are dropped) *)
Example C16_ring_nonvacuous :
  exists rb, ring_writes empty_ring [repeat 65 capacity; [66; 67]] = Ok rb /\ valid rb /\
             contents rb = repeat 65 (capacity - 2) ++ [66; 67] /\ rIdx rb = 2 /\ wIdx rb = 1.
Proof.
  destruct (writes_spec [repeat 65 capacity; [66; 67]] empty_ring valid_empty) as (rb & E & V & C).
  exists rb. split; [exact E|]. split; [exact V|]. split; [rewrite C; reflexivity|].
  pose proof wrapped_shape as S. rewrite E in S. destruct S as (S & _). injection S. auto.
Qed.

Example C16_ring_drain_example :
  match ring_writes empty_ring [repeat 65 capacity; [66; 67]] with
  | Ok rb => match drain drain_fuel rb with
             | Ok (cs, rb') => concat cs = repeat 65 (capacity - 2) ++ [66; 67] /\ length cs = 2%nat /\ rIdx rb' = wIdx rb'
             | _ => False end
  | _ => False end.
Proof.
  destruct (ring_fifo_any empty_ring [repeat 65 capacity; [66; 67]] valid_empty) as (rb & cs & rb' & E & D & C & _).
  pose proof wrapped_shape as S. rewrite E in *. destruct S as (_ & S). rewrite D in *.
  split; [rewrite C; reflexivity|exact S].
Qed.

(** drivers: a terminal (early), a driver whose init fails with "boom" after logging "a\nb", a
    console, a second terminal, a driver whose probe finds nothing *)
Definition d_tty := mkDriver 0 (-128) (Some (mkProbed KTTY [118; 116] 0 0 1 None [] false false)).
Definition d_bad := mkDriver 1 0 (Some (mkProbed KOther [120] 1 2 3 (Some [98; 111; 111; 109]) [[97; 10; 98]] false false)).
Definition d_con := mkDriver 2 0 (Some (mkProbed KConsole [99] 0 1 0 None [] true true)).
Definition d_tty2 := mkDriver 3 127 (Some (mkProbed KTTY [116; 50] 0 0 2 None [] false false)).
Definition d_none := mkDriver 4 127 None.
Definition ex_registered := [d_none; d_con; d_tty2; d_tty; d_bad].
Definition ex_sorted := [d_tty; d_bad; d_con; d_tty2; d_none].

Example C16_sorted_nonvacuous :
  Permutation ex_registered ex_sorted /\ Sorted (fun a b => (d_order a <= d_order b)%Z) ex_sorted /\
  NoDup (map d_id ex_sorted) /\ init_ok d_bad = false /\ init_ok d_none = false.
Proof.
  split.
  { unfold ex_registered, ex_sorted.
    apply Permutation_trans with (l' := d_con :: d_tty2 :: d_tty :: d_bad :: [d_none]).
    - apply (Permutation_cons_append [d_con; d_tty2; d_tty; d_bad] d_none).
    - apply Permutation_trans with (l' := d_tty :: d_con :: d_tty2 :: d_bad :: [d_none]).
      + apply Permutation_sym. apply (Permutation_middle [d_con; d_tty2] (d_bad :: [d_none]) d_tty).
      + constructor. apply Permutation_trans with (l' := d_bad :: d_con :: d_tty2 :: [d_none]).
        * apply Permutation_sym. apply (Permutation_middle [d_con; d_tty2] [d_none] d_bad).
        * apply Permutation_refl. }
  split.
  { repeat constructor; vm_compute; discriminate. }
  split; [|split; reflexivity].
  repeat constructor; simpl; intuition discriminate.
Qed.

(** "hi\n" is logged early; the terminal comes up first, the console (with font and logo support) third: the terminal receives the
    early log, then later output; the failed driver is reported with its message *)
Definition ex_tty_bytes : list N :=
  [104; 105; 10]
  ++ [91; 104; 97; 108; 93; 32; 118; 116; 40; 48; 46; 48; 46; 49; 41; 58; 32; 105; 110; 105; 116; 105; 97; 108; 105; 122; 101; 100; 10]
  ++ [91; 104; 97; 108; 93; 32; 120; 40; 49; 46; 50; 46; 51; 41; 58; 32; 97; 10]
  ++ [91; 104; 97; 108; 93; 32; 120; 40; 49; 46; 50; 46; 51; 41; 58; 32; 98]
  ++ [105; 110; 105; 116; 32; 102; 97; 105; 108; 101; 100; 58; 32; 98; 111; 111; 109; 10]
  ++ [91; 104; 97; 108; 93; 32; 99; 40; 48; 46; 49; 46; 48; 41; 58; 32; 105; 110; 105; 116; 105; 97; 108; 105; 122; 101; 100; 10]
  ++ [91; 104; 97; 108; 93; 32; 116; 50; 40; 48; 46; 48; 46; 50; 41; 58; 32; 105; 110; 105; 116; 105; 97; 108; 105; 122; 101; 100; 10]
  ++ [33].

Example C16_bringup_example :
  match scenario [LStr [104; 105; 10]] ex_sorted [LBytes [33]] init_hal with
  | Ok st =>
      probes (h_trace st) = [0; 1; 2; 3; 4] /\ inits (h_trace st) = [0; 1; 2; 3] /\
      h_tty st = Some 0 /\ h_console st = Some 2 /\ h_active st = [0; 2; 3] /\
      attaches (h_trace st) = [(0, 2)] /\ states (h_trace st) = [(0, 1)] /\ h_sink st = STTY 0 /\
      tty_bytes 0 (h_trace st) = ex_tty_bytes /\ tty_bytes 3 (h_trace st) = [] /\
      logos (h_trace st) = [2] /\ fonts (h_trace st) = [2]
  | _ => False
  end.
Proof. vm_compute. repeat split; reflexivity. Qed.

(** without a console nothing is linked and the early buffer keeps the log *)
Example C16_no_pair_example :
  match scenario [LStr [104; 105; 10]] [d_tty; d_none] [] init_hal with
  | Ok st => h_sink st = SRing /\ h_tty st = Some 0 /\ h_console st = None /\ attaches (h_trace st) = [] /\
             contents (h_ring st) =
               [104; 105; 10] ++ [91; 104; 97; 108; 93; 32; 118; 116; 40; 48; 46; 48; 46; 49; 41; 58; 32; 105; 110; 105; 116; 105; 97; 108; 105; 122; 101; 100; 10]
  | _ => False
  end.
Proof. vm_compute. repeat split; reflexivity. Qed.

(** the prefix writer on "a\nb" then "c\n\n" then "" then "d", starting at the beginning of a line: every line gets the prefix ">" *)
Example C16_prefix_example :
  concat (fst (prefix_writes [62] 0 [[97; 10; 98]; [99; 10; 10]; []; [100]])) = [62; 97; 10; 62; 98; 99; 10; 62; 10; 62; 100]
  /\ inject [62] true [97; 10; 98; 99; 10; 10; 100] = [62; 97; 10; 62; 98; 99; 10; 62; 10; 62; 100].
Proof. split; vm_compute; reflexivity. Qed.

Example C16_failed_nonvacuous :
  d_probe d_bad = Some (mkProbed KOther [120] 1 2 3 (Some [98; 111; 111; 109]) [[97; 10; 98]] false false) /\
  length (a_numbuf init_abs) = N.to_nat kfmt_numFmtBufLen.
Proof. split; reflexivity. Qed.
