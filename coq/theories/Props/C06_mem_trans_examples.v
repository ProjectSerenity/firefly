(** Concrete runs of the regenerated kernel.Memset / kernel.Memcopy (Gen/Trans_kernel_mem.v) by [vm_compute] on a
    32-byte memory: a size that is not a power of two, the first and last byte of the memory, size 0, an overlapping
    copy in both directions, one unit of fuel too little, and a size of 2^63. *)
From Coq Require Import NArith List Lia.
From FF Require Import Lib.Word Lib.GoOps Gen.Consts_mm_vmm Gen.Trans_kernel_mem Kernel.MemUtil Vmm.Pt Vmm.PtMem.
From FF Require Kernel.MemUtilTrans Vmm.MemsetSeam Vmm.PdtTrans.
Module S := FF.Vmm.MemsetSeam.
Module T := FF.Vmm.PdtTrans.
Import ListNotations.
Local Open Scope N_scope.

Definition m32 : list N := pattern 32.
Definition mem_of (r : gres (go_kernel_world * unit)) : option (list N) :=
  match r with GOk (w, _) => Some (f_world_mem w) | _ => None end.

Example C06_memset_translated_fills_exactly_nonvacuous :
  (11 : N) <> 0 /\ (11 : N) < 2 ^ 63 /\ (5 + N.to_nat 11 <= length m32)%nat.
Proof. split; [discriminate|]. split; [reflexivity | cbn; lia]. Qed.

(** 11 bytes (not a power of two) from index 5: exactly those, neighbours untouched *)
Example memset_run :
  mem_of (go_kernel_Memset 64 (mk_go_kernel_world [] m32) 5 0xAB 11)
  = Some (firstn 5 m32 ++ repeat 0xAB 11 ++ skipn 16 m32)
  /\ memset m32 5 0xAB 11 = MOk (firstn 5 m32 ++ repeat 0xAB 11 ++ skipn 16 m32).
Proof. vm_compute. split; reflexivity. Qed.

(** the whole memory, a single byte at the end, and size 0 *)
Example memset_edges_run :
  mem_of (go_kernel_Memset 64 (mk_go_kernel_world [] m32) 0 7 32) = Some (repeat 7 32)
  /\ mem_of (go_kernel_Memset 64 (mk_go_kernel_world [] m32) 31 7 1) = Some (firstn 31 m32 ++ [7])
  /\ mem_of (go_kernel_Memset 64 (mk_go_kernel_world [] m32) 9 7 0) = Some m32.
Proof. vm_compute. repeat split. Qed.

(** 32 bytes need the test of index = 1, 2, 4, 8, 16, 32: six units of fuel; five are reported as GFuel, never a panic *)
Example memset_fuel_run :
  go_kernel_Memset 5 (mk_go_kernel_world [] m32) 0 7 32 = GFuel
  /\ mem_of (go_kernel_Memset 6 (mk_go_kernel_world [] m32) 0 7 32) = Some (repeat 7 32).
Proof. vm_compute. split; reflexivity. Qed.

(** a size that is negative as a Go int: the translation stops at the overlay; the model is undefined there *)
Example memset_huge_run :
  go_kernel_Memset 64 (mk_go_kernel_world [] m32) 0 7 (2 ^ 63) = GPanic /\ memset m32 0 7 (2 ^ 63) = MUndef
  /\ go_kernel_Memcopy (mk_go_kernel_world [] m32) 0 8 (2 ^ 63) = GPanic.
Proof. vm_compute. repeat split. Qed.

(** overlapping copies, forwards and backwards: the destination shows what the source showed before *)
Example memcopy_run :
  mem_of (go_kernel_Memcopy (mk_go_kernel_world [] m32) 4 8 10) = Some (firstn 8 m32 ++ firstn 10 (skipn 4 m32) ++ skipn 18 m32)
  /\ mem_of (go_kernel_Memcopy (mk_go_kernel_world [] m32) 8 4 10) = Some (firstn 4 m32 ++ firstn 10 (skipn 8 m32) ++ skipn 14 m32)
  /\ mem_of (go_kernel_Memcopy (mk_go_kernel_world [] m32) 8 4 0) = Some m32.
Proof. vm_compute. repeat split. Qed.

(** the seam: the boot state's root frame is reachable at pdtVirtualAddr; its bytes as 512 little-endian words *)
Example C06_memset_seam_is_memset_nonvacuous :
  let s := init_state 0x100 64 0 [] in
  resolve_page s vmm_pdtVirtualAddr = Some 0x100 /\ (100 + 4096 <= length (repeat 0x5B 4300))%nat
  /\ firstn 8 (skipn (511 * 8) (S.frame_bytes (mem s) 0x100)) = [3; 0; 0x10; 0; 0; 0; 0; 0].
Proof. split; [vm_compute; reflexivity|]. split; [apply PeanoNat.Nat.leb_le; vm_compute; reflexivity | vm_compute; reflexivity]. Qed.
