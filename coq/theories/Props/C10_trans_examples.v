(** Non-vacuity of the C10 translation ties and concrete runs of the REGENERATED decoders (Gen/Trans_multiboot.v)
    by vm_compute: on the well-formed block of Props/C10_examples.v (every kind of tag, two memory maps, placed so
    that it ends at a page boundary) and on a small block written out byte by byte. *)
From Coq Require Import String NArith List Bool.
From FF Require Import Lib.Word Lib.GoOps Gen.Consts_multiboot Gen.Trans_multiboot Multiboot.Model Multiboot.Spec
  Multiboot.FindProofs Multiboot.AfterVisit Multiboot.DecodeTrans Multiboot.DecodeTransElf Props.C10_examples Props.C10_trans.
Import ListNotations.
Local Open Scope N_scope.

Definition ex_mem : mem := mem_of ex_layout (encode ex_mb).

(** the hypothesis of every translation theorem holds for the example memory *)
Example C10_trans_mem_bytes_nonvacuous : mem_bytes ex_mem.
Proof. apply mem_bytes_b_ok. vm_compute. reflexivity. Qed.

(** the two composed theorems at the example block: all hypotheses discharged *)
Example C10_findTag_translation_on_block_nonvacuous :
  go_multiboot_findTagByType mld (find_fuel ex_mem) (mkw [] ex_mem) mb_tagFramebufferInfo (l_info ex_layout) =
    GOk (mkw [] ex_mem, (l_info ex_layout + 0xe0, 30)).
Proof.
  unfold ex_mem.
  rewrite (C10_findTag_translation_on_block ex_layout ex_mb mb_tagFramebufferInfo []
             C10_mbinfo_wf_nonvacuous C10_layout_wf_nonvacuous ltac:(discriminate)).
  vm_compute. reflexivity.
Qed.

Example C10_visitMemRegions_translation_on_block_nonvacuous :
  forall cont : N -> region -> bool,
  go_multiboot_VisitMemRegions mld mst 100 (mkw [] ex_mem) (l_info ex_layout) (vis_oracle cont 0) =
    GOk (mkw (rev (map ev_region (visited cont 0 (expected_regions ex_mb))) ++ [])
             (mem_of ex_layout (encode (after_visit cont ex_mb))), tt).
Proof.
  intros cont.
  apply (C10_visitMemRegions_translation_on_block ex_layout ex_mb cont [] 100
           C10_mbinfo_wf_nonvacuous C10_layout_wf_nonvacuous).
  - vm_compute. repeat constructor.
  - vm_compute. repeat constructor.
Qed.

(** ---- the regenerated functions, run ---- *)
(** findTagByType: payload address and payload size (30) of the framebuffer tag; an absent tag gives (0,0) *)
Example C10_trans_run_find :
  go_multiboot_findTagByType mld 100 (mkw [] ex_mem) mb_tagFramebufferInfo (l_info ex_layout) =
    GOk (mkw [] ex_mem, (l_info ex_layout + 0xe0, 30)) /\
  go_multiboot_findTagByType mld 100 (mkw [] ex_mem) mb_tagModules (l_info ex_layout) = GOk (mkw [] ex_mem, (0, 0)).
Proof. vm_compute. auto. Qed.

(** one unit of fuel below the need is GFuel, not GPanic: the framebuffer tag is the 5th header inspected *)
Example C10_trans_run_find_fuel :
  go_multiboot_findTagByType mld 4 (mkw [] ex_mem) mb_tagFramebufferInfo (l_info ex_layout) = GFuel /\
  go_multiboot_findTagByType mld 5 (mkw [] ex_mem) mb_tagFramebufferInfo (l_info ex_layout) =
    GOk (mkw [] ex_mem, (l_info ex_layout + 0xe0, 30)).
Proof. vm_compute. auto. Qed.

(** VisitMemRegions with a visitor that always continues: four calls (most recent first on the trace); the
    entries of type 5 and type 0 are presented - and left in memory - as reserved (2) *)
Example C10_trans_run_visit :
  go_multiboot_VisitMemRegions mld mst 100 (mkw [] ex_mem) (l_info ex_layout) (fun _ => true) =
    GOk (mkw [ GCall "visitor" [GNum 0x7fe0000; GNum 0x20000; GNum 3];
               GCall "visitor" [GNum 0xfffc0000; GNum 0x40000; GNum 2];
               GCall "visitor" [GNum 0x100000; GNum 0x7ee0000; GNum 2];
               GCall "visitor" [GNum 0; GNum 0x9fc00; GNum 1] ]
             (mem_of ex_layout (encode (after_visit (fun _ _ => true) ex_mb))), tt).
Proof. vm_compute. reflexivity. Qed.

(** a visitor that answers false on its second call: two calls, the third entry (type 0) is not touched *)
Example C10_trans_run_visit_stop :
  go_multiboot_VisitMemRegions mld mst 100 (mkw [] ex_mem) (l_info ex_layout) (vis_oracle (fun i _ => negb (i =? 1)) 0) =
    GOk (mkw [ GCall "visitor" [GNum 0x100000; GNum 0x7ee0000; GNum 2];
               GCall "visitor" [GNum 0; GNum 0x9fc00; GNum 1] ]
             (mem_of ex_layout (encode (after_visit (fun i _ => negb (i =? 1)) ex_mb))), tt).
Proof. vm_compute. reflexivity. Qed.

(** GetFramebufferInfo: the address of the framebuffer tag's payload *)
Example C10_trans_run_fb :
  go_multiboot_GetFramebufferInfo mld 100 (mkw [] ex_mem) (l_info ex_layout) = GOk (mkw [] ex_mem, l_info ex_layout + 0xe0).
Proof. vm_compute. reflexivity. Qed.

(** RGBColorInfo on the example's framebuffer tag (type 1 = RGB): the colour block follows the 24 bytes of fields;
    on the raw block below (type byte 6) it is nil *)
Example C10_trans_run_rgb :
  go_multiboot_FramebufferInfo_RGBColorInfo mld (mkw [] ex_mem) (l_info ex_layout + 0xe0) = GOk (mkw [] ex_mem, l_info ex_layout + 0xe0 + 24) /\
  read_fb ex_mem (l_info ex_layout + 0xe0) = Ok (mkFb 0xfd000000 4096 1024 768 32 1 (Some [16; 8; 8; 8; 0; 8])).
Proof. vm_compute. auto. Qed.

(** VisitElfSections: the empty section is skipped, names come from the string table (".shstrtab", ".text"), the
    flags 0x10000000006 are cut to 32 bits; the memory is untouched *)
Example C10_trans_run_elf :
  go_multiboot_VisitElfSections mld 600 (mkw [] ex_mem) (l_info ex_layout) =
    GOk (mkw [ GCall "visitor" [GBytes [46; 116; 101; 120; 116]; GNum 6; GNum 0x100000; GNum 0x2000];
               GCall "visitor" [GBytes [46; 115; 104; 115; 116; 114; 116; 97; 98]; GNum 0; GNum ex_saddr; GNum 17] ] ex_mem, tt).
Proof. vm_compute. reflexivity. Qed.

(** ... the theorem on the block, all hypotheses discharged (fuel 2^16) *)
Example C10_visitElfSections_translation_on_block_nonvacuous :
  go_multiboot_VisitElfSections mld (N.to_nat 65536) (mkw [] ex_mem) (l_info ex_layout) =
    GOk (mkw (rev (map ev_section (expected_sections (l_strtab ex_layout) ex_mb)) ++ []) ex_mem, tt).
Proof.
  apply (C10_visitElfSections_translation_on_block ex_layout ex_mb [] (N.to_nat 65536)
           C10_mbinfo_wf_nonvacuous C10_layout_wf_nonvacuous).
  - apply PeanoNat.Nat.leb_le. vm_compute. reflexivity.
  - apply PeanoNat.Nat.leb_le. vm_compute. reflexivity.
  - rewrite N2Nat.id. discriminate.
Qed.

(** a section name that is not terminated inside the string table: the scan runs off its end: GPanic; with too
    little fuel (9; 10 is enough: the name ".shstrtab" takes 10 tests of the loop condition) GFuel, not GPanic *)
Example C10_trans_run_elf_stray :
  go_multiboot_VisitElfSections mld 600 (mkw [] (mem_of (mkLayout (l_info ex_layout) (l_pre ex_layout) ex_saddr [] (firstn 16 ex_strtab)) (encode ex_mb)))
    (l_info ex_layout) = GPanic /\
  go_multiboot_VisitElfSections mld 9 (mkw [] ex_mem) (l_info ex_layout) = GFuel.
Proof. vm_compute. auto. Qed.

(** an out-of-block read is GPanic: the block cut short by 8 bytes (no end tag) makes the scan for an absent tag
    read the header at the page boundary, where the memory has no byte *)
Example C10_trans_run_stray :
  go_multiboot_findTagByType mld 100 (mkw [] (mem_of ex_layout (firstn 472 (encode ex_mb)))) mb_tagModules (l_info ex_layout) = GPanic /\
  go_multiboot_VisitMemRegions mld mst 100 (mkw [] (mem_of ex_layout (firstn 100 (encode ex_mb)))) (l_info ex_layout) (fun _ => true) = GPanic.
Proof. vm_compute. auto. Qed.

(** a tag of size 0 makes findTagByType loop forever: GFuel for every fuel tried *)
Example C10_trans_run_hang :
  go_multiboot_findTagByType mld 1000 (mkw [] [mkSeg 0x1000 ([16; 0; 0; 0; 0; 0; 0; 0] ++ [5; 0; 0; 0; 0; 0; 0; 0])]) mb_tagModules 0x1000 = GFuel.
Proof. vm_compute. reflexivity. Qed.

(** ---- a block written out byte by byte (not produced by [encode]): total size 112, a command line "a=b c", a
    memory map with entry size 24 and two entries (types 1 and 9), no framebuffer, the end tag ---- *)
Definition raw_block : list N :=
  [ 112; 0; 0; 0;   0; 0; 0; 0;
    (* tag 1 (command line), size 14, "a=b c\0", 2 bytes of padding *)
    1; 0; 0; 0;   14; 0; 0; 0;   97; 61; 98; 32; 99; 0;   0; 0;
    (* tag 6 (memory map), size 64: entry size 24, version 0 *)
    6; 0; 0; 0;   64; 0; 0; 0;   24; 0; 0; 0;   0; 0; 0; 0;
    0; 0; 0; 0; 0; 0; 0; 0;      0; 16; 0; 0; 0; 0; 0; 0;     1; 0; 0; 0;   0; 0; 0; 0;
    0; 16; 0; 0; 0; 0; 0; 0;     0; 32; 0; 0; 0; 0; 0; 0;     9; 0; 0; 0;   0; 0; 0; 0;
    (* tag 8 (framebuffer), size 14: too short to be a real one; only its address is reported *)
    8; 0; 0; 0;   14; 0; 0; 0;   1; 2; 3; 4; 5; 6;   0; 0;
    (* end tag *)
    0; 0; 0; 0;   8; 0; 0; 0 ].
Definition raw_mem : mem := [mkSeg 0x7000 raw_block].

Example C10_trans_run_raw :
  length raw_block = 112%nat /\
  go_multiboot_findTagByType mld 10 (mkw [] raw_mem) mb_tagBootCmdLine 0x7000 = GOk (mkw [] raw_mem, (0x7010, 6)) /\
  go_multiboot_GetFramebufferInfo mld 10 (mkw [] raw_mem) 0x7000 = GOk (mkw [] raw_mem, 0x7060) /\
  (exists m', go_multiboot_VisitMemRegions mld mst 10 (mkw [] raw_mem) 0x7000 (fun _ => true) =
     GOk (mkw [ GCall "visitor" [GNum 0x1000; GNum 0x2000; GNum 2]; GCall "visitor" [GNum 0; GNum 0x1000; GNum 1] ] m', tt) /\
     rd m' (0x7000 + 24 + 16 + 24 + 16) 4 = Ok 2) /\
  (* the same block cut after 80 bytes, inside the second memory-map entry: its type field is not in memory *)
  go_multiboot_VisitMemRegions mld mst 10 (mkw [] [mkSeg 0x7000 (firstn 80 raw_block)]) 0x7000 (fun _ => true) = GPanic.
Proof.
  split; [reflexivity|]. split; [vm_compute; reflexivity|]. split; [vm_compute; reflexivity|].
  split; [|vm_compute; reflexivity]. eexists. split; vm_compute; reflexivity.
Qed.

(** ---- the GENERAL theorems (not the on-block compositions): all hypotheses discharged together at the example
    block - fuel bounds, the visitor call cap, and "the model's run does not end in Hang / Runaway" ---- *)
Example C10_visitMemRegions_is_translation_nonvacuous :
  go_multiboot_VisitMemRegions mld mst 100 (mkw [] ex_mem) (l_info ex_layout) (vis_oracle (fun _ _ => true) 0) =
    match visit_mem_regions 10 (fun _ _ => true) ex_mem (l_info ex_layout) with
    | (m', rs, Ok _) => GOk (mkw (rev (map ev_region rs) ++ []) m', tt)
    | _ => GPanic
    end /\
  (match visit_mem_regions 10 (fun _ _ => true) ex_mem (l_info ex_layout) with (_, rs, Ok _) => length rs = 4%nat | _ => False end).
Proof.
  (* the model's run is evaluated once; every condition on it is then read off the result *)
  assert (E : exists m' rs, visit_mem_regions 10 (fun _ _ => true) ex_mem (l_info ex_layout) = (m', rs, Ok tt) /\ length rs = 4%nat)
    by (do 2 eexists; split; [vm_compute; reflexivity | reflexivity]).
  destruct E as (m' & rs & E & Hlen).
  split; [|rewrite E; exact Hlen].
  apply (C10_visitMemRegions_is_translation 100 10 (fun _ _ => true) [] ex_mem (l_info ex_layout) C10_trans_mem_bytes_nonvacuous).
  - apply PeanoNat.Nat.leb_le. vm_compute. reflexivity.
  - apply PeanoNat.Nat.ltb_lt. reflexivity.
  - rewrite E. discriminate.
  - rewrite E. discriminate.
Qed.

Example C10_visitElfSections_is_translation_nonvacuous :
  go_multiboot_VisitElfSections mld (N.to_nat 65536) (mkw [] ex_mem) (l_info ex_layout) =
    match visit_elf_sections ex_mem (l_info ex_layout) with
    | (rs, Ok _) => GOk (mkw (rev (map ev_section rs) ++ []) ex_mem, tt)
    | _ => GPanic
    end /\
  (match visit_elf_sections ex_mem (l_info ex_layout) with (rs, Ok _) => length rs = 2%nat | _ => False end).
Proof.
  assert (E : exists rs, visit_elf_sections ex_mem (l_info ex_layout) = (rs, Ok tt) /\ length rs = 2%nat)
    by (eexists; split; [vm_compute; reflexivity | reflexivity]).
  destruct E as (rs & E & Hlen).
  split; [|rewrite E; exact Hlen].
  apply (C10_visitElfSections_is_translation (N.to_nat 65536) [] ex_mem (l_info ex_layout) C10_trans_mem_bytes_nonvacuous).
  - apply PeanoNat.Nat.leb_le. vm_compute. reflexivity.
  - apply PeanoNat.Nat.leb_le. vm_compute. reflexivity.
  - rewrite N2Nat.id. discriminate.
  - rewrite E. discriminate.
  - rewrite E. discriminate.
Qed.

Example C10_read_fb_uses_rgbColorInfo_nonvacuous :
  go_multiboot_FramebufferInfo_RGBColorInfo mld (mkw [] ex_mem) (l_info ex_layout + 0xe0) =
    GOk (mkw [] ex_mem, padd (l_info ex_layout + 0xe0) mb_off_FramebufferInfo_colorInfo) /\
  rd_each ex_mem (padd (l_info ex_layout + 0xe0) mb_off_FramebufferInfo_colorInfo) rgb_offsets = Ok [16; 8; 8; 8; 0; 8].
Proof.
  assert (Hr : read_fb ex_mem (l_info ex_layout + 0xe0) = Ok (mkFb 0xfd000000 4096 1024 768 32 1 (Some [16; 8; 8; 8; 0; 8])))
    by (vm_compute; reflexivity).
  exact (C10_read_fb_uses_rgbColorInfo [] ex_mem (l_info ex_layout + 0xe0) _ C10_trans_mem_bytes_nonvacuous Hr).
Qed.

Example C10_trans_store_keeps_bytes_nonvacuous :
  exists m', mst ex_mem 4 (l_info ex_layout) 7 = Some m' /\ mem_bytes m'.
Proof.
  destruct (mst ex_mem 4 (l_info ex_layout) 7) as [m'|] eqn:E; [|vm_compute in E; discriminate].
  exists m'. split; [reflexivity|]. exact (C10_trans_store_keeps_bytes ex_mem 4 (l_info ex_layout) 7 m' C10_trans_mem_bytes_nonvacuous E).
Qed.
