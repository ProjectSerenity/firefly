(** Non-vacuity of the translation tie of the early ring buffer (Props/C16_ring_trans.v): the hypotheses
    ([valid], fuel > len(p), len(p) an int) are met by the states the kernel reaches - the zero value
    of the struct, the state after a few writes, the state after a write that wraps around and
    overwrites the oldest bytes - and concrete runs of the TRANSLATION (no fuel exhaustion, no
    panic) agree with the model.  Sizes are written relative to the regenerated constant. *)
From Coq Require Import NArith String List Lia.
From FF Require Import Lib.GoOps Lib.GoOpsExt Gen.Consts_kfmt Gen.Trans_kfmt_ring.
From FF Require Import Kfmt.Fmt Kfmt.Ring Kfmt.RingProofs Kfmt.RingTrans Props.C16_ring_trans.
Import ListNotations.
Local Open Scope N_scope.

(** the zero value *)
Example C16_ring_trans_valid_empty_nonvacuous : valid empty_ring.
Proof. exact valid_empty. Qed.

(** the theorems instantiated at the zero value: any p, fuel = len(p) + 1 *)
Example C16_ring_write_trans_at_empty (p : list N) :
  go_kfmt_ringBuffer_Write (S (length p)) (to_go empty_ring) p =
  match ring_write empty_ring p with
  | Ok rb' => GOk (to_go rb', (glen p, None))
  | Panic _ => GPanic
  | OutOfFuel => GFuel
  end.
Proof. apply C16_ring_write_is_translation; [exact valid_empty|lia]. Qed.

(** ... and after any history of writes (here: one that wraps: ringBufferSize + 2 bytes), for Read into a
    4-byte buffer *)
Definition wrap_bytes : list N := map (fun k => N.of_nat k mod 256) (seq 0 (N.to_nat ring_size + 2)).

Example C16_ring_read_trans_after_wrap :
  exists rb, ring_write empty_ring wrap_bytes = Ok rb /\ valid rb /\
    go_kfmt_ringBuffer_Read (to_go rb) [0; 0; 0; 0] =
    match ring_read rb 4 with
    | Ok (d, eof, rb') =>
        GOk (to_go rb', (glen d, (if eof then Some "io.EOF"%string else None), d ++ skipn (length d) [0; 0; 0; 0]))
    | Panic _ => GPanic
    | OutOfFuel => GFuel
    end.
Proof.
  destruct (write_spec wrap_bytes empty_ring valid_empty) as (rb & E & V & _).
  exists rb. split; [exact E|]. split; [exact V|].
  apply (C16_ring_read_is_translation rb [0; 0; 0; 0] V). reflexivity.
Qed.

(** ---- concrete runs of the translation ---- *)
Definition zero_ring : go_kfmt_ringBuffer := mk_go_kfmt_ringBuffer (repeat 0 (N.to_nat ring_len)) 0 0.

(** Write([1,2,3]) on the zero value with fuel 4: three stores, wIndex = 3, returns (3, nil) *)
Example C16_ring_trans_run_write :
  go_kfmt_ringBuffer_Write 4 zero_ring [1; 2; 3] =
  GOk (mk_go_kfmt_ringBuffer (1 :: 2 :: 3 :: repeat 0 (N.to_nat ring_len - 3)) 0 3, (3, None)).
Proof. vm_compute. reflexivity. Qed.

(** one unit of fuel less: the range loop cannot make its final test *)
Example C16_ring_trans_run_write_fuel : go_kfmt_ringBuffer_Write 3 zero_ring [1; 2; 3] = GFuel.
Proof. vm_compute. reflexivity. Qed.

(** then Read into a 2-byte buffer: two bytes, rIndex = 2; on the empty ring: io.EOF *)
Example C16_ring_trans_run_read :
  go_kfmt_ringBuffer_Read (mk_go_kfmt_ringBuffer (1 :: 2 :: 3 :: repeat 0 (N.to_nat ring_len - 3)) 0 3) [9; 9] =
  GOk (mk_go_kfmt_ringBuffer (1 :: 2 :: 3 :: repeat 0 (N.to_nat ring_len - 3)) 2 3, (2, None, [1; 2])) /\
  go_kfmt_ringBuffer_Read zero_ring [9; 9] = GOk (zero_ring, (0, Some "io.EOF"%string, [9; 9])).
Proof. split; vm_compute; reflexivity. Qed.

(** The model's indices after the wrapping write.  Evaluated by need: the PositiveMap holding the bytes is
    never forced, and neither are the bytes. *)
Lemma wrap_indices :
  match ring_write empty_ring wrap_bytes with Ok rb => (rIdx rb, wIdx rb) = (3, 2) | _ => False end.
Proof. lazy. reflexivity. Qed.

(** a write of ringBufferSize + 2 bytes wraps: wIndex = 2 and the read index was pushed to 3; a Read into a
    large buffer then returns the ringBufferSize - 3 bytes up to the end of the array and resets rIndex to 0 *)
Example C16_ring_trans_run_wrap :
  match go_kfmt_ringBuffer_Write (S (length wrap_bytes)) zero_ring wrap_bytes with
  | GOk (g, (n, e)) =>
      (f_ringBuffer_rIndex g, f_ringBuffer_wIndex g, n) = (3, 2, ring_size + 2) /\
      match go_kfmt_ringBuffer_Read g (repeat 0 (2 * N.to_nat ring_size)) with
      | GOk (g', (n', e', p')) => (f_ringBuffer_rIndex g', n', e') = (0, ring_size - 3, None)
      | _ => False
      end
  | _ => False
  end.
Proof.
  destruct C16_ring_trans_keeps_valid as (Z & V0 & _).
  unfold zero_ring. rewrite <- Z.
  rewrite (C16_ring_write_is_translation empty_ring wrap_bytes (S (length wrap_bytes)) V0 (PeanoNat.Nat.lt_succ_diag_r _)).
  pose proof wrap_indices as I.
  destruct (ring_write empty_ring wrap_bytes) as [[m r w]| |]; try contradiction.
  cbn [rIdx wIdx] in I. injection I as -> ->.
  split; [lazy; reflexivity|].
  rewrite (C16_ring_read_is_translation (mkRing m 3 2)); [|split; reflexivity|lazy; reflexivity].
  lazy. reflexivity.
Qed.

(** a panic is reported as such: an out-of-range write index (not a state the kernel reaches) *)
Example C16_ring_trans_run_panic :
  go_kfmt_ringBuffer_Write 2 (mk_go_kfmt_ringBuffer (repeat 0 (N.to_nat ring_len)) 0 ring_len) [1] = GPanic /\
  go_kfmt_ringBuffer_Write 2 (mk_go_kfmt_ringBuffer (repeat 0 (N.to_nat ring_len)) 0 (2 ^ 64 - 1)) [1] = GPanic.
Proof. split; vm_compute; reflexivity. Qed.
