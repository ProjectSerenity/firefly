(** C13 — the namespace tree stays well-formed under every sequence of legal edits, freed slots are
    reused before the pool grows, and path lookup follows the ACPI search rules for every byte
    string from every live scope, without crashing.
    Statements; the proofs are in Aml/TreeProofs*.v, a few lines here put their lemmas together.

    Vocabulary (Aml/TreeSpec.v): [ghost] = abstract forest (children list of every slot, list of
    freed slots); [R t g] = the pool [t] realises the forest [g]: first/last/next/prev/parent agree
    with the children lists in both directions, detached objects carry no links, freed objects
    are childless, in nobody's child list and exactly the members of the free list threaded
    through nextSiblingIndex, parent links are acyclic; [legal g op] = creation (opcode inside the
    opcode maps and not the freed marker, room below InvalidIndex when the pool has to grow), append / insert-after of a live detached object that is
    not an ancestor of the new parent, detach of a child, free of a live childless object;
    [astep g op] = the corresponding list operation on the forest. *)
From Coq Require Import NArith List Lia.
From FF Require Import Lib.Word Gen.Consts_aml_tree Aml.Stream Aml.Tree Aml.TreeSpec
                       Aml.TreeProofs Aml.TreeProofsOps Aml.TreeProofsFind Aml.TreeProofsAnc Aml.TreeProofsNew.
Import ListNotations.
Local Open Scope N_scope.

(** The empty tree realises the empty forest. *)
Theorem C13_R_empty : forall V : Type, R (@NewObjectTree V) ghost0.
Proof. intros V. exact R_empty. Qed.
Print Assumptions C13_R_empty.

(** Every legal operation runs without panic, preserves [R] and performs the corresponding list
    operation on the forest. *)
Theorem C13_op_preserves_R :
  forall (V : Type) (t : ObjectTree V) (g : ghost) (o : op),
    R t g -> legal g o -> exists t', step t o = Ok t' /\ R t' (astep g o).
Proof. intros V. exact step_R. Qed.
Print Assumptions C13_op_preserves_R.

(** ... hence so does every history of legal operations, from any well-formed tree. *)
Theorem C13_ops_preserve_R :
  forall (V : Type) (ops : list op) (t : ObjectTree V) (g : ghost),
    R t g -> legal_seq g ops -> exists t', run t ops = Ok t' /\ R t' (arun g ops).
Proof. intros V. exact run_R. Qed.
Print Assumptions C13_ops_preserve_R.

(** From the empty tree: every legal history that starts with a creation and never frees slot 0
    ends in a well-formed tree whose root scope (slot 0) is live -- the situation in which the
    lookup theorems below apply to every live scope. *)
Theorem C13_history_from_empty :
  forall (V : Type) (o : op) (ops : list op),
    legal_seq ghost0 (o :: ops) ->
    (exists opc th, o = OpNew opc th) \/ (exists opc th nm, o = OpNewNamed opc th nm) ->
    ~ In (OpFree 0) ops ->
    exists t', run (@NewObjectTree V) (o :: ops) = Ok t' /\ R t' (arun ghost0 (o :: ops)) /\ live t' 0.
Proof.
  intros V o ops HL Hnew Hnf.
  destruct (run_R (o :: ops) (@NewObjectTree V) ghost0 R_empty HL) as (t' & Hrun & HR').
  exists t'. split; auto. split; auto.
  apply (R_live_glive t' _ HR'). cbn [arun]. apply glive_arun; auto.
  destruct Hnew as [(opc & th & ->)|(opc & th & nm & ->)]; cbn [astep ghost0 g_free g_kids app]; split;
    cbn [g_kids g_free length In]; try lia; intros [].
Qed.
Print Assumptions C13_history_from_empty.

(** [newObject] grows the pool only when no freed slot exists; otherwise it hands out a freed slot. *)
Theorem C13_reuse_before_grow :
  forall (V : Type) (t t' : ObjectTree V) (g : ghost) (opc th p : N),
    R t g -> newObject t opc th = Ok (t', p) ->
    ((exists i o, get t i = Some o /\ o_opcode o = opFreed) ->
        length (t_pool t') = length (t_pool t) /\
        (exists o, get t p = Some o /\ o_opcode o = opFreed) /\
        (exists o', get t' p = Some o' /\ o_opcode o' = opc)) /\
    ((forall i o, get t i = Some o -> o_opcode o <> opFreed) ->
        length (t_pool t') = S (length (t_pool t)) /\ p = N.of_nat (length (t_pool t))).
Proof. intros V. exact reuse_before_grow_lemma. Qed.
Print Assumptions C13_reuse_before_grow.

(** Path lookup.  For EVERY byte string [expr] and every live scope of a well-formed tree whose
    root scope (slot 0) is live, [Find] returns exactly what the reference resolver [resolve]
    (Aml/TreeSpec.v, over the abstract forest; names read from the objects) designates:
      '\' + path     resolved downward from slot 0;
      '^'... + path  one parent per '^' (not found above a root), then downward;
      4 bytes        the first child of that name in the scope, else in each enclosing scope;
      > 4 bytes      downward only, segment by segment (bytes that cannot start a name are
                     skipped before each segment; not found if fewer than 4 bytes remain);
      otherwise      not found. *)
Theorem C13_find_spec :
  forall (V : Type) (t : ObjectTree V) (g : ghost) (scope : N) (expr : list N),
    R t g -> live t scope -> live t 0 ->
    Find t scope expr = Ok (enc_result (resolve g (name_at t) scope expr)).
Proof. intros V t g scope expr HR. exact (Find_spec t g HR scope expr). Qed.
Print Assumptions C13_find_spec.

(** ... in particular it never panics (no nil dereference, no index out of range) and its loops
    end within the pool size, whatever the expression. *)
Theorem C13_find_total :
  forall (V : Type) (t : ObjectTree V) (g : ghost) (scope : N) (expr : list N),
    R t g -> live t scope -> live t 0 ->
    Find t scope expr <> Panic /\ Find t scope expr <> OutOfFuel.
Proof. intros V t g scope expr HR H1 H2. rewrite (Find_spec t g HR scope expr H1 H2). split; discriminate. Qed.
Print Assumptions C13_find_total.

(** the relative lookup used by the parser directly *)
Theorem C13_findRelative_spec :
  forall (V : Type) (t : ObjectTree V) (g : ghost) (scope : N) (expr : list N),
    R t g -> live t scope ->
    findRelative t scope expr = Ok (enc_result (resolve_rel g (name_at t) scope expr)).
Proof. intros V t g scope expr HR. exact (findRelative_spec t g HR scope expr). Qed.
Print Assumptions C13_findRelative_spec.

(** What a lookup returns is a live object (never a freed slot). *)
Theorem C13_find_result_live :
  forall (V : Type) (t : ObjectTree V) (g : ghost) (scope : N) (expr : list N) (r : N),
    R t g -> live t scope -> live t 0 -> Find t scope expr = Ok r -> r = InvalidIndex \/ live t r.
Proof. intros V t g scope expr r HR. exact (Find_result_live t g HR scope expr r). Qed.
Print Assumptions C13_find_result_live.

(** No freed object is reachable: every link of a live object is InvalidIndex or leads to a
    live object, and ObjectAt answers nil for a freed slot. *)
Theorem C13_freed_unreachable :
  forall (V : Type) (t : ObjectTree V) (g : ghost),
    R t g ->
    (forall i o, get t i = Some o -> o_opcode o <> opFreed ->
       forall l, In l [o_parent o; o_prev o; o_next o; o_first o; o_last o] -> l = InvalidIndex \/ live t l) /\
    (forall i o, get t i = Some o -> o_opcode o = opFreed -> ObjectAt t i = None /\ kids g i = [] /\
       forall p, ~ In i (kids g p)).
Proof.
  intros V t g HR. split; [exact (links_live t g HR)|].
  intros i o Hg Hf. split; [exact (ObjectAt_freed t i o Hg Hf)|]. split; [exact (proj1 (R_freed t g HR i o Hg Hf))|].
  intros p Hin. destruct (R_In_kids t g HR p i Hin) as (_ & co & Hc & Hl & _). congruence.
Qed.
Print Assumptions C13_freed_unreachable.

(** NumArgs and ArgAt read the child list of the forest. *)
Theorem C13_numargs_argat :
  forall (V : Type) (t : ObjectTree V) (g : ghost) (p index : N),
    R t g -> live t p ->
    NumArgs t (Some p) = Ok (N.of_nat (length (kids g p))) /\
    ArgAt t (Some p) index = Ok (nth_error (kids g p) (N.to_nat index)).
Proof. intros V t g p index HR Hl. split; [exact (NumArgs_spec t g HR p Hl) | exact (ArgAt_spec t g HR p index Hl)]. Qed.
Print Assumptions C13_numargs_argat.

(** ClosestNamedAncestor: when every live object carries an opcode-table index inside the table
    ([info_ok]: true for objects created with an opcode that has a table entry), the ancestor
    search never panics and returns the nearest enclosing object whose table entry has the Named
    flag, or InvalidIndex if a Scope directive (or a root) is met first. *)
Theorem C13_closest_named_ancestor :
  forall (V : Type) (t : ObjectTree V) (g : ghost) (p : N),
    R t g -> info_ok t -> live t p ->
    ClosestNamedAncestor t (Some p) = Ok (enc_result (closest_ref t g p)).
Proof. intros V t g p HR Hi. exact (ClosestNamedAncestor_spec t g HR Hi p). Qed.
Print Assumptions C13_closest_named_ancestor.

(** An object made by newObject is unnamed and unlinked whether its slot is fresh or a reused slot of the
    free list: it carries the zero name (which no name segment of a lookup equals), the requested opcode and
    table handle, no value and no links.  (If a reused slot kept the name of the freed
    object - create a named object, free it, call newObject - Find would resolve the old name to the new object.) *)
Theorem C13_newobject_unnamed :
  forall (V : Type) (t t' : ObjectTree V) (opcode tableHandle p : N),
    newObject t opcode tableHandle = Ok (t', p) ->
    exists o, get t' p = Some o /\ o_name o = name_zero /\ o_opcode o = opcode /\ o_tableHandle o = tableHandle /\
              o_value o = None /\ o_parent o = InvalidIndex /\ o_prev o = InvalidIndex /\ o_next o = InvalidIndex /\
              o_first o = InvalidIndex /\ o_last o = InvalidIndex.
Proof. intros V t t' opcode tableHandle p. exact (newObject_unnamed t t' opcode tableHandle p). Qed.
Print Assumptions C13_newobject_unnamed.
