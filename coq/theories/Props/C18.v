(** C18 — an active terminal and its console always show the same thing.
    Statements; the proofs put together the simulation from NewVT + AttachTo ([boot_sim], Tty/VtProofs.v) and the
    facts about the calls expected of the reference terminal (Tty/VtConsProofs.v).

    The terminal is the model of vt.go (Tty/Vt.v, the one C17 is about); the console is the
    cell-level console of Console/Grid.v ([g_write], [g_fill], [g_scroll] — the semantics C19
    states of the drivers).  [calls_rel g cs g'] : [g'] is a console content the calls [cs] can
    produce from [g], for ANY junk a driver leaves in the lines vacated by a scroll.
    [shows g v] : same dimensions and, in every cell of the grid, the console cell equals the
    terminal's viewport cell (character and both colours). *)
From Coq Require Import NArith List.
From FF Require Import Lib.Word Gen.Consts_device_tty Console.Grid
     Tty.Vt Tty.VtSpec Tty.VtProofs Tty.VtCons Tty.VtConsProofs.
Import ListNotations.
Local Open Scope N_scope.

(** For every geometry (as in C17), every history of Write / WriteByte / SetCursorPosition /
    SetState calls after NewVT + AttachTo — i.e. every byte stream and every interleaving of
    activations and deactivations with writes — and every initial console content [g0]: whatever
    content [g] the console can have after the calls the terminal made, if the terminal is active
    then the console shows exactly the terminal's viewport.  (Every prefix of a history is a
    history: this is "after every write".) *)
Theorem C18_sync_inv :
  forall w h sb tab fg bg (ops : list op) (g0 : cgrid),
    1 <= w -> 1 <= h -> tab <= 255 -> w * (h + sb) * 3 < two32 -> Forall op_wf ops ->
    gw g0 = w -> gh g0 = h ->
    exists v0 v, attach (new_vt tab sb) w h fg bg = Ok v0 /\ run_ops v0 ops = Ok v /\
      forall g, calls_rel g0 (rev (trace v)) g -> st v = tty_StateActive -> shows g v.
Proof.
  intros w h sb tab fg bg ops g0 Hw Hh _ Hsz WF Gw Gh.
  destruct (boot_sim w h sb tab fg bg Hw Hh Hsz ops WF) as (v0 & v & E0 & E & I & RR & S & T).
  exists v0, v. split; [exact E0|]. split; [exact E|]. intros g.
  now apply (shows_run w h sb tab fg bg Hw Hh Hsz ops v g0 g).
Qed.
Print Assumptions C18_sync_inv.

(** While the terminal is inactive the console is not touched at all: from any reachable state
    [v1] that is not active, any further history [ops2] that does not activate the terminal
    makes no console call (the trace does not grow) and leaves the terminal inactive. *)
Theorem C18_inactive_silent :
  forall w h sb tab fg bg (ops1 ops2 : list op),
    1 <= w -> 1 <= h -> tab <= 255 -> w * (h + sb) * 3 < two32 ->
    Forall op_wf ops1 -> Forall op_wf ops2 ->
    (forall s', In (OSetState s') ops2 -> s' <> tty_StateActive) ->
    exists v0 v1 v2, attach (new_vt tab sb) w h fg bg = Ok v0 /\
      run_ops v0 ops1 = Ok v1 /\ run_ops v1 ops2 = Ok v2 /\
      (st v1 <> tty_StateActive -> trace v2 = trace v1 /\ st v2 <> tty_StateActive).
Proof.
  intros w h sb tab fg bg ops1 ops2 Hw Hh _ Hsz WF1 WF2 NA.
  destruct (boot_sim w h sb tab fg bg Hw Hh Hsz ops1 WF1) as (v0 & v1 & E0 & E1 & I1 & R1 & _).
  destruct (run_sim w h sb tab fg bg Hw Hh Hsz ops2 v1 _ I1 R1 WF2) as (v2 & E2 & _ & _ & S2 & T2).
  exists v0, v1, v2. split; [exact E0|]. split; [exact E1|]. split; [exact E2|]. intros Hs.
  destruct (silent_run w h sb tab fg bg ops2 (st v1) (ref_run w h sb tab fg bg ops1) Hs NA) as (A & B).
  rewrite A in T2. split; [exact T2|]. now rewrite S2.
Qed.
Print Assumptions C18_inactive_silent.

(** Activation redraws: after any history that leaves the terminal inactive, SetState(Active)
    succeeds and the calls it makes turn ANY console content [g] of the right size — whatever
    was written while the terminal was inactive, whatever the console showed — into exactly the
    terminal's viewport. *)
Theorem C18_activate_redraws :
  forall w h sb tab fg bg (ops : list op),
    1 <= w -> 1 <= h -> tab <= 255 -> w * (h + sb) * 3 < two32 -> Forall op_wf ops ->
    exists v0 v, attach (new_vt tab sb) w h fg bg = Ok v0 /\ run_ops v0 ops = Ok v /\
      (st v <> tty_StateActive ->
       exists v' calls, set_state v tty_StateActive = Ok v' /\ st v' = tty_StateActive /\
         trace v' = rev calls ++ trace v /\
         forall g g' : cgrid, gw g = w -> gh g = h -> calls_rel g calls g' -> shows g' v').
Proof. exact activate_redraws_thm. Qed.
Print Assumptions C18_activate_redraws.

(** Nothing is drawn outside the grid: every console call the terminal ever makes addresses an
    area that lies inside the [w] x [h] grid without any clamping or clipping — Write at an
    in-grid cell, Fill of a rectangle inside the grid, Scroll up by at most [h] lines. *)
Theorem C18_in_grid :
  forall w h sb tab fg bg (ops : list op),
    1 <= w -> 1 <= h -> tab <= 255 -> w * (h + sb) * 3 < two32 -> Forall op_wf ops ->
    exists v0 v, attach (new_vt tab sb) w h fg bg = Ok v0 /\ run_ops v0 ops = Ok v /\
      Forall (call_in_grid w h) (trace v).
Proof.
  intros w h sb tab fg bg ops Hw Hh _ Hsz WF.
  destruct (boot_sim w h sb tab fg bg Hw Hh Hsz ops WF) as (v0 & v & E0 & E & _ & _ & _ & T).
  exists v0, v. split; [exact E0|]. split; [exact E|].
  rewrite <- (rev_involutive (trace v)), T. apply Forall_rev.
  apply (in_grid_run w h sb tab fg bg Hw Hh); [now apply (rinv_init w h sb tab)|exact WF].
Qed.
Print Assumptions C18_in_grid.

(** The composition run by the correspondence driver ([apply_calls], junk = old content) is one
    of the console behaviours the theorems above quantify over. *)
Theorem C18_driver_instance :
  forall (cs : list ccall) (g : cgrid), calls_rel g cs (apply_calls g cs).
Proof. exact apply_calls_rel. Qed.
Print Assumptions C18_driver_instance.
