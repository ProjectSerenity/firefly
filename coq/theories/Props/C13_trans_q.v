(** C13 - tie BY TRANSLATION, continued (see Props/C13_trans.v for the setting): the three read-only walks
    NumArgs, ArgAt, ClosestNamedAncestor of obj_tree.go, and CreateDefaultScopes (last theorem).  The Go loops of the walks are `gloop fuel step state` in the
    regenerated Gen/Trans_aml_tree.v; the model recurses on fuel.  The exit test of a loop consumes one unit of fuel on
    both sides, so the equality holds for EVERY tree, every argument (nil included) and EVERY fuel: the translation
    returns the model's value, panics exactly where the model does (a sibling / parent index that ObjectAt does not
    resolve, an infoIndex beyond pOpcodeTable) and reports GFuel exactly where the model reports OutOfFuel (a cyclic
    chain); the tree is returned unchanged.  With the model's own fuel [chain_fuel t] these are the model's functions
    (C13_queries_are_translation).  `pOpcodeTable[i].flags` is read from the regenerated constant table
    tree_opcodeTableFlags (config "exttables").  Statements only; proofs are in Aml/TreeTransQ.v. *)
From Coq Require Import NArith List.
From FF Require Import Lib.GoOps Lib.GoPool Gen.Consts_aml_tree Gen.Trans_aml_tree Aml.Stream Aml.Tree.
From FF Require Aml.TreeTrans Aml.TreeTransQ.
Module TT := FF.Aml.TreeTrans.
Module TQ := FF.Aml.TreeTransQ.
Import ListNotations.
Local Open Scope N_scope.

Theorem C13_NumArgs_is_translation :
  forall (V : Type) (t : ObjectTree V) (obj : option N) (fuel : nat),
    go_aml_ObjectTree_NumArgs fuel (TT.tr_tree t) obj =
    TT.lift (fun n => (TT.tr_tree t, n))
      (match obj with None => Ok 0 | Some p => do first <- rd t p o_first; numArgs_go fuel t first 0 end).
Proof. exact @TQ.NumArgs_is_translation. Qed.
Print Assumptions C13_NumArgs_is_translation.

Theorem C13_ArgAt_is_translation :
  forall (V : Type) (t : ObjectTree V) (obj : option N) (index : N) (fuel : nat),
    go_aml_ObjectTree_ArgAt fuel (TT.tr_tree t) obj index =
    TT.lift (fun r => (TT.tr_tree t, r))
      (match obj with None => Ok None | Some p => do first <- rd t p o_first; argAt_go fuel t 0 first index end).
Proof. exact @TQ.ArgAt_is_translation. Qed.
Print Assumptions C13_ArgAt_is_translation.

Theorem C13_ClosestNamedAncestor_is_translation :
  forall (V : Type) (t : ObjectTree V) (obj : option N) (fuel : nat),
    go_aml_ObjectTree_ClosestNamedAncestor fuel (TT.tr_tree t) obj =
    TT.lift (fun r => (TT.tr_tree t, r))
      (match obj with None => Ok InvalidIndex | Some p => do par <- rd t p o_parent; closest_go fuel t par end).
Proof. exact @TQ.ClosestNamedAncestor_is_translation. Qed.
Print Assumptions C13_ClosestNamedAncestor_is_translation.

(** with the model's own fuel: exactly the model's NumArgs / ArgAt / ClosestNamedAncestor *)
Theorem C13_queries_are_translation :
  forall (V : Type) (t : ObjectTree V) (obj : option N) (index : N),
    go_aml_ObjectTree_NumArgs (chain_fuel t) (TT.tr_tree t) obj = TT.lift (fun n => (TT.tr_tree t, n)) (NumArgs t obj) /\
    go_aml_ObjectTree_ArgAt (chain_fuel t) (TT.tr_tree t) obj index = TT.lift (fun r => (TT.tr_tree t, r)) (ArgAt t obj index) /\
    go_aml_ObjectTree_ClosestNamedAncestor (chain_fuel t) (TT.tr_tree t) obj =
      TT.lift (fun r => (TT.tr_tree t, r)) (ClosestNamedAncestor t obj).
Proof. exact @TQ.queries_model_fuel. Qed.
Print Assumptions C13_queries_are_translation.

(** CreateDefaultScopes(tableHandle): six newNamedObject calls and five appends.  The translation carries the scope names
    as the array literals of the source; the model reads them from the regenerated constant tree_defaultScopeNames -
    the theorem also says the two agree.  For every tree (the call is legal on a non-empty tree too: the new scopes are
    appended to the new root object). *)
Theorem C13_CreateDefaultScopes_is_translation :
  forall (V : Type) (t : ObjectTree V) (tableHandle : N),
    go_aml_ObjectTree_CreateDefaultScopes (TT.tr_tree t) tableHandle TT.table_oracle =
    TT.lift (fun t' => (TT.tr_tree t', tt)) (CreateDefaultScopes t tableHandle).
Proof. exact @TQ.CreateDefaultScopes_is_translation. Qed.
Print Assumptions C13_CreateDefaultScopes_is_translation.
