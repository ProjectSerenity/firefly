(** Non-vacuity: concrete well-formed maps / kernel placements, and concrete runs of the model. *)
From Coq Require Import NArith List Lia Sorted.
From FF Require Import Lib.Word Gen.Consts_mm_pmm Pmm.Boot Pmm.BootProofs.
Import ListNotations.
Local Open Scope N_scope.

(** unaligned region of 159 whole frames, a reserved hole, a 65-frame region starting mid-page, a
    sub-page available region, a type-0 region and an adjacent 2-frame region *)
Definition ex_map : memmap :=
  [ mkRegion 0 0x9fc00 1; mkRegion 0x9fc00 0x400 2; mkRegion 0x100800 0x41800 1;
    mkRegion 0x142000 0x800 1; mkRegion 0x150000 0x1000 0; mkRegion 0x151000 0x2000 1 ].

Example C02_map_nonvacuous : WFmap ex_map.
Proof.
  split.
  - repeat constructor; unfold WFregion, two64; cbn; lia.
  - cbn. repeat split; repeat constructor; cbn; lia.
Qed.

(** kernel in the middle of the third region, end not page aligned *)
Example C02_kernel_nonvacuous : WFkernel ex_map 0x110000 0x112345.
Proof.
  split; [reflexivity|]. split; [lia|].
  exists (mkRegion 0x100800 0x41800 1). cbn. repeat split; try lia. right. right. left. reflexivity.
Qed.

(** kernel covering the first region completely, spilling into its trailing partial page *)
Example C02_kernel_whole_nonvacuous : WFkernel ex_map 0 0x9fc00.
Proof.
  split; [reflexivity|]. split; [lia|].
  exists (mkRegion 0 0x9fc00 1). cbn. repeat split; try lia. left. reflexivity.
Qed.

(** kernel inside the trailing partial page only *)
Example C02_kernel_tail_nonvacuous : WFkernel ex_map 0x9f000 0x9f800.
Proof.
  split; [reflexivity|]. split; [lia|].
  exists (mkRegion 0 0x9fc00 1). cbn. repeat split; try lia. left. reflexivity.
Qed.

Definition run_frames (kstart kend : N) (n : nat) : list N :=
  successes (snd (boot_run ex_map (kernel_start_frame kstart) (kernel_end_frame kend) n boot_reset)).

(** 159 + 65 + 2 whole frames, 3 of them kernel: exhaustion after 223 frames; region 3 starts
    mid-page so its first frame is 0x101; the kernel frames 0x110..0x112 are jumped *)
(* Once a call fails and leaves the state as it was, every later call does the same: of the 400 calls that
   [C02_run_example] and [C02_oom_example] speak of, only the first 223 and one more are run. *)
Lemma run_exhausted m ks ke a b :
  let p := boot_run m ks ke a boot_reset in
  boot_alloc m ks ke (fst p) = (fst p, None) ->
  fst (boot_run m ks ke (a + b) boot_reset) = fst p /\
  successes (snd (boot_run m ks ke (a + b) boot_reset)) = successes (snd p).
Proof.
  generalize boot_reset. induction a as [|a IH]; intros st; cbn [boot_run Nat.add].
  - cbn [fst snd]. intros H. induction b as [|b IHb]; cbn [boot_run]; [split; reflexivity|].
    rewrite H. destruct (boot_run m ks ke b st) as [st2 rs]. exact IHb.
  - destruct (boot_alloc m ks ke st) as [st1 r]. intros H. specialize (IH st1).
    destruct (boot_run m ks ke a st1) as [sa ra], (boot_run m ks ke (a + b) st1) as [sb rb].
    destruct (IH H) as [E1 E2]. split; [exact E1|]. cbn [snd successes] in *. destruct r; rewrite E2; reflexivity.
Qed.

Lemma run_223 :
  let p := boot_run ex_map (kernel_start_frame 0x110000) (kernel_end_frame 0x112345) 223 boot_reset in
  boot_alloc ex_map (kernel_start_frame 0x110000) (kernel_end_frame 0x112345) (fst p) = (fst p, None) /\
  let fs := successes (snd p) in
  length fs = 223%nat /\ nth 158 fs 0 = 0x9e /\ nth 159 fs 0 = 0x101 /\
  nth 173 fs 0 = 0x10f /\ nth 174 fs 0 = 0x113 /\ last fs 0 = 0x152.
Proof. vm_compute. repeat split. Qed.

Example C02_run_example :
  let fs := run_frames 0x110000 0x112345 400 in
  length fs = 223%nat /\ nth 158 fs 0 = 0x9e /\ nth 159 fs 0 = 0x101 /\
  nth 173 fs 0 = 0x10f /\ nth 174 fs 0 = 0x113 /\ last fs 0 = 0x152.
Proof.
  unfold run_frames. change 400%nat with (223 + 177)%nat.
  rewrite (proj2 (run_exhausted _ _ _ 223 177 (proj1 run_223))). exact (proj2 run_223).
Qed.

(** the kernel covers the whole first region: allocation starts in the next region *)
Example C02_run_whole_example :
  firstn 3 (run_frames 0 0x9fc00 10) = [0x101; 0x102; 0x103].
Proof. vm_compute. reflexivity. Qed.

(** kernel in the trailing partial page of region 1: frame 0xa0 is NOT handed out *)
Example C02_run_tail_example :
  let fs := run_frames 0x9f000 0x9f800 200 in
  nth 157 fs 0 = 0x9d /\ nth 158 fs 0 = 0x9e /\ nth 159 fs 0 = 0x101.
Proof. vm_compute. repeat split. Qed.

(** the hypothesis of the out-of-memory theorem is satisfiable: after 400 calls nothing remains *)
Example C02_oom_example :
  snd (boot_alloc ex_map (kernel_start_frame 0x110000) (kernel_end_frame 0x112345)
         (fst (boot_run ex_map (kernel_start_frame 0x110000) (kernel_end_frame 0x112345) 400 boot_reset))) = None.
Proof.
  change 400%nat with (223 + 177)%nat.
  rewrite (proj1 (run_exhausted _ _ _ 223 177 (proj1 run_223))), (proj1 run_223). reflexivity.
Qed.
