(** C11 — [parse_encode] proved for a fragment of the grammar (the full statement is [C11_full_parse_encode]
    in Props/C11.v, refuted there for the whole grammar by eight witnesses).
    Statements only; every proof is [exact <lemma>] (Aml/ParserFrag*.v).  F0 .. F8, T2, T2F7, TN and TN8 are the programs
    a recogniser accepts, and each theorem is [parse_encode_tables] (Aml/ParserFragF3Final.v: any sequence of tables of
    declarations and Scope directives, all but the last without Scope directives) read through the recogniser; F9 has
    its own proof (Aml/ParserFragF9Final.v).

    Fragment F0 ([in_fragment_F0], a boolean): ONE table; every item is [Name(SEG, c)] where the name is a single
    NameSeg (no root / parent prefix, not written as a MultiNamePath) and [c] is an integer constant
    (Zero, One, Ones, BytePrefix, WordPrefix, DWordPrefix, QWordPrefix); any number of items, names need not be
    distinct; the encoded table is shorter than 2^28 bytes.  Productions inside the fragment: DefName,
    NameString = NameSeg, DataRefObject = ConstObj | ByteConst | WordConst | DWordConst | QWordConst.

    For every such well-formed program the model of ParseAML (Aml/Parser.v: all six passes, with the parser's own
    fuel), run on the encoded table over the default scopes, returns success, and the sorted namespace view of the
    resulting tree (Aml/View.v) IS the namespace [ns] the specification assigns to the program (Aml/Grammar.v). *)
From Coq Require Import NArith List.
From FF Require Import Aml.Grammar Aml.WfProgram Aml.ParserFragF0Final Aml.ParserFragF1Final Aml.ParserFragF3Final Aml.ParserFragF4Final Aml.ParserFragF5Final Aml.ParserFragF6Final Aml.ParserFragF7Final Aml.ParserFragT2Final Aml.ParserFragT2F7Final Aml.ParserFragTNFinal Aml.ParserFragF8Final Aml.ParserFragTN8Final Aml.ParserFragF9Final.
Import ListNotations.
Local Open Scope N_scope.

Theorem C11_parse_encode_partial : forall tables,
  wf_program tables = true -> in_fragment_F0 tables = true -> parse_encode_statement tables.
Proof. exact parse_encode_F0. Qed.
Print Assumptions C11_parse_encode_partial.

(** Fragment F1 ([in_fragment_F1], a boolean): ONE table; every item is either [Name(SEG, c)] as in F0 or
    [Device(SEG){ items }] - a Device block with a single-NameSeg name (no root / parent prefix, not a MultiNamePath)
    whose body consists of items of the fragment again, nested to ANY depth, with any PkgLength width (1-4 bytes)
    that is admissible for the block; any number of items; the encoded table is shorter than 2^28 bytes.
    Productions inside the fragment: DefName, DefDevice (PkgLength, NameString = NameSeg, TermList of DefName / DefDevice),
    DataRefObject = ConstObj | ByteConst | WordConst | DWordConst | QWordConst.  F0 is the sub-fragment without Device.

    The proof covers the nested scope / pkgEnd stacks of the first pass, the recursion of connectNamedObjArgs into the
    ScopeBlock of every Device, and the fact that the view lists a Device after its body whereas [ns] lists it first
    (the two listings are permutations, and the insertion sort of Aml/Grammar.v is invariant under permutations). *)
Theorem C11_parse_encode_partial_F1 : forall tables,
  wf_program tables = true -> in_fragment_F1 tables = true -> parse_encode_statement tables.
Proof. exact parse_encode_F1. Qed.
Print Assumptions C11_parse_encode_partial_F1.

(** Fragment F2 ([in_fragment_F2], a boolean) = F1 + Method declarations: ONE table; every item is [Name(SEG, c)],
    [Device(SEG){ items }] or [Method(SEG, flags){ items }] with single-NameSeg names; the bodies of Devices and Methods
    consist of items of the fragment again (so a Method body holds declarations only - possibly none; no executable
    statements), nested to any depth; any admissible PkgLength width; the encoded table is shorter than 2^28 bytes.
    Productions inside the fragment: DefName, DefDevice, DefMethod (PkgLength, NameString = NameSeg, MethodFlags,
    TermList of DefName / DefDevice / DefMethod), DataRefObject = integer constant.  F1 is the Method-free part of F2
    ([in_fragment_F1] = the same recogniser + "no Method anywhere"). *)
Theorem C11_parse_encode_partial_F2 : forall tables,
  wf_program tables = true -> in_fragment_F2 tables = true -> parse_encode_statement tables.
Proof. exact parse_encode_F2. Qed.
Print Assumptions C11_parse_encode_partial_F2.

(** Fragment F3 ([in_fragment_F3], a boolean) = F2 + Scope directives over the predefined scopes: ONE table; every
    top-level item is an item of F2 or [Scope(\SEG){ items of F2 }] / [Scope(SEG){ items of F2 }] where SEG is one of
    the predefined scopes _GPE, _PR_, _SB_, _SI_, _TZ_ (single NameSeg, with or without the root prefix, not written
    as a MultiNamePath); any number of directives, the same scope may be opened several times; any admissible
    PkgLength width; the encoded table is shorter than 2^28 bytes.  Productions added to F2: DefScope (PkgLength,
    NameString = RootChar NameSeg | NameSeg, TermList of DefName / DefDevice / DefMethod).
    Not in the fragment: Scope directives below the top level, Scope over a declared object, Scope(\).

    Here mergeScopeDirectives does real work: for every directive the target is found (Find from the root), the
    contents of the directive's ScopeBlock are moved below the predefined scope, and the directive, its name path
    and its ScopeBlock are freed; relocateNamedObjects and passes 4-6 then run over a pool with freed slots. *)
Theorem C11_parse_encode_partial_F3 : forall tables,
  wf_program tables = true -> in_fragment_F3 tables = true -> parse_encode_statement tables.
Proof. exact parse_encode_F3. Qed.
Print Assumptions C11_parse_encode_partial_F3.

(** Fragment F4 ([in_fragment_F4], a boolean) = F3 + the other block-like named objects: ONE table; the items are
    [Name(SEG, c)], [Device(SEG){..}], [ThermalZone(SEG){..}], [Processor(SEG, id, pblk address, pblk length){..}],
    [PowerResource(SEG, system level, resource order){..}] and [Method(SEG, flags){ declarations }], with single-NameSeg
    names and bodies made of items of the fragment again, nested to any depth; at the top level also
    [Scope(\SEG){ items }] / [Scope(SEG){ items }] over the predefined scopes as in F3; any admissible PkgLength width;
    the encoded table is shorter than 2^28 bytes.  Productions added to F3: DefThermalZone, DefProcessor (ProcID
    ByteData, PblkAddr DWordData, PblkLen ByteData), DefPowerRes (SystemLevel ByteData, ResourceOrder WordData).
    The proofs treat all block-like objects uniformly: a list of fixed-width data arguments between the name and the
    TermList (first pass: one loop lemma over the argument list; connectNamedObjArgs / the view: a row of childless
    objects of any length). *)
Theorem C11_parse_encode_partial_F4 : forall tables,
  wf_program tables = true -> in_fragment_F4 tables = true -> parse_encode_statement tables.
Proof. exact parse_encode_F4. Qed.
Print Assumptions C11_parse_encode_partial_F4.

(** Fragment F5 ([in_fragment_F5], a boolean) = F4 + the leaf named objects: [Mutex(SEG, sync flags)], [Event(SEG)] and
    [OperationRegion(SEG, space, offset, length)] whose offset and length are integer constants (Zero / One / Ones /
    Byte- / Word- / DWord- / QWordPrefix), with single-NameSeg names, anywhere an item of F4 may stand (top level, bodies
    of Device / ThermalZone / Processor / PowerResource / Method, inside Scope directives over the predefined scopes).
    Productions added to F4: DefMutex (SyncFlags ByteData), DefEvent, DefOpRegion (RegionSpace ByteData, RegionOffset and
    RegionLen TermArg = integer constant).  For an OperationRegion the first pass leaves the two TermArgs as the next
    objects of the enclosing scope and connectNamedObjArgs attaches both (attachSiblingsAsArgs over two siblings, proved
    for a run of siblings of any length).  Not in the fragment: region offsets / lengths that are expressions or names
    (known findings c11:named-object-operator-arg, c11:path-inside-named-object-arg), Field declarations. *)
Theorem C11_parse_encode_partial_F5 : forall tables,
  wf_program tables = true -> in_fragment_F5 tables = true -> parse_encode_statement tables.
Proof. exact parse_encode_F5. Qed.
Print Assumptions C11_parse_encode_partial_F5.

(** Two-table fragment T2 ([in_fragment_T2], a boolean): programs of TWO tables.  The first table is a list of items of
    F5 (Name / Device / ThermalZone / Processor / PowerResource / Method with declaration-only body / Mutex / Event /
    OperationRegion with constant arguments, nested to any depth) WITHOUT Scope directives; the second table is a table
    of F5, i.e. items of F5 and, at its top level, [Scope(\SEG){ items }] / [Scope(SEG){ items }] over the predefined
    scopes (the usual shape of an SSDT: Scope(\_SB_){ Device ... }).  Each encoded table is shorter than 2^28 bytes.
    [parse_program] loads the first table with handle 1 and the second one with handle 2 into the tree the first one
    left (the fuel of the second parse counts the pool slots of the first, see Parser.parse_fuel): the first pass
    appends to the pool and to the root, connectNamedObjArgs, mergeScopeDirectives, relocateNamedObjects and passes 4-6
    walk the objects of the first table as well and leave them alone because they carry another table handle, the
    Scope directives of the second table move their contents below the predefined scopes, and [ns] of the two tables
    (specification: the second table is resolved against the names of both) is the sorted view of the final tree. *)
Theorem C11_parse_encode_partial_T2 : forall tables,
  wf_program tables = true -> in_fragment_T2 tables = true -> parse_encode_statement tables.
Proof. exact parse_encode_T2. Qed.
Print Assumptions C11_parse_encode_partial_T2.

(** Fragment F6 ([in_fragment_F6], a boolean) = F5 + Name declarations whose value is a string: [Name(SEG, "chars")] with
    characters 0x01 .. 0x7f (possibly none), single-NameSeg name, anywhere an item of F5 may stand.  Production added
    to F5: DataRefObject = String (StringPrefix AsciiCharList NullChar).  The parser stores table index and byte range of
    the string, not the bytes; the proof follows the range through connectNamedObjArgs (the string object becomes the
    argument of the Name) and reads it back from the table image in the namespace view (all view lemmas carry the
    position of every item in its table).  Not in the fragment: Buffer / Package values (Buffer is parsed by
    parseDeferredBlocks), strings as arguments of other objects. *)
Theorem C11_parse_encode_partial_F6 : forall tables,
  wf_program tables = true -> in_fragment_F6 tables = true -> parse_encode_statement tables.
Proof. exact parse_encode_F6. Qed.
Print Assumptions C11_parse_encode_partial_F6.

(** Fragment F7 ([in_fragment_F7], a boolean) = F6 + Name declarations whose value is a package of constants:
    [Name(SEG, Package(n){e1, ..., em})] where every element is an integer constant (Zero / One / Ones / Byte- / Word- /
    DWord- / QWordPrefix) or a string, anywhere an item of F6 may stand (top level, Scope body, Device-like body,
    Method body); fewer elements than [n] are allowed, and the package may be empty.  Productions added to F6:
    DataRefObject = DefPackage (PackageOp PkgLength NumElements PackageElementList), PackageElement restricted to
    integer constants and strings.  Not covered: nested packages, Buffers, names as package elements, VarPackage. *)
Theorem C11_parse_encode_partial_F7 : forall tables,
  wf_program tables = true -> in_fragment_F7 tables = true -> parse_encode_statement tables.
Proof. exact parse_encode_F7. Qed.
Print Assumptions C11_parse_encode_partial_F7.

(** Two-table fragment T2F7 ([in_fragment_T2F7], a boolean) = T2 with the items of F7 in place of those of F5: two tables,
    the first a list of items of F7 without Scope directives, the second a table of F7 (items of F7 and top-level Scope
    directives over the predefined scopes); each encoded table shorter than 2^28 bytes.  In addition to T2: Name
    declarations whose value is a string or a package of integer constants and strings, in both tables (the strings of
    each table are read back from that table's image). *)
Theorem C11_parse_encode_partial_T2F7 : forall tables,
  wf_program tables = true -> in_fragment_T2F7 tables = true -> parse_encode_statement tables.
Proof. exact parse_encode_T2F7. Qed.
Print Assumptions C11_parse_encode_partial_T2F7.

(** Fragment TN ([in_fragment_TN], a boolean): programs of ANY NUMBER of tables (at least one).  Every table is a table
    of F7 (items of F7 and, at the top level of the table, Scope directives over the predefined scopes); all tables
    but the LAST are without Scope directives ([noscope]); 6 + the sum of the encoded table lengths is below 2^28.
    Subsumes F7 (one table), T2 and T2F7 (two tables).  [parse_program] loads table i with handle i into the tree the
    earlier tables left: by induction on the tables, with the invariant [SInv] (ParserFragTNTop.v: predefined scopes
    are leaves, the objects of the earlier tables form a forest below the root that fills the pool slots 6 .. b-1
    contiguously, empty free list, every object carries a handle of an earlier table), each further table appends
    its objects, all later passes leave the earlier objects alone, and the view of the final tree lists every table's
    objects from that table's image.  Why only the last table may have Scope directives: mergeScopeDirectives frees the
    three objects of a directive, the next table would then allocate from the free list and its objects would no longer
    be contiguous in the pool, which the layout functions of these proofs assume. *)
Theorem C11_parse_encode_partial_TN : forall tables,
  wf_program tables = true -> in_fragment_TN tables = true -> parse_encode_statement tables.
Proof. exact parse_encode_TN. Qed.
Print Assumptions C11_parse_encode_partial_TN.

(** Fragment F8 ([in_fragment_F8], a boolean) = F7 + nested packages: in [Name(SEG, Package(n){e1, ..., em})] every
    element is an integer constant, a string, or again a [Package(n'){...}] of such elements, to any depth (the shape
    of tables such as _PSS).  Production added to F7: PackageElement = DefPackage.  The parser reads a nested package
    with the same object-list loop (the inner package's ScopeBlock on the scope stack, its end on the pkgEnd stack);
    the proof treats package elements by an induction of their own (ParserFragF9First.v [ESpec]); connectNamedObjArgs
    attaches the whole subtree to the Name, and the view renders it recursively (ParserFragF9View.v [render_pels]).
    Not covered: names / Buffers as elements, VarPackage. *)
Theorem C11_parse_encode_partial_F8 : forall tables,
  wf_program tables = true -> in_fragment_F8 tables = true -> parse_encode_statement tables.
Proof. exact parse_encode_F8. Qed.
Print Assumptions C11_parse_encode_partial_F8.

(** Fragment TN8 ([in_fragment_TN8], a boolean) = TN with the items of F8: any number of tables (at least one), every
    table a table of F8, all tables but the last without Scope directives, 6 + the sum of the encoded table lengths
    below 2^28.  Subsumes F8 and TN: the largest of these fragments. *)
Theorem C11_parse_encode_partial_TN8 : forall tables,
  wf_program tables = true -> in_fragment_TN8 tables = true -> parse_encode_statement tables.
Proof. exact parse_encode_TN8. Qed.
Print Assumptions C11_parse_encode_partial_TN8.

(** Fragment F9 ([in_fragment_F9], a boolean) = the items of F8 WITHOUT Scope directives + STATEMENTS with constant operands:
    ONE table; the items are those of F8 (Name with an integer / string / (nested) package value, Device / ThermalZone /
    Processor / PowerResource / Method blocks, Mutex, Event, OperationRegion with constant offset and length; single-NameSeg
    names; nested to any depth; any admissible PkgLength width) and, anywhere an item may stand - in the body of a Method, of a
    Device / ThermalZone / Processor / PowerResource, or at the top level of the table, next to declarations and in any
    order - statements [op(c1, ..., cn)] where [op] is one of Return, Sleep, Stall, LNot (one operand), LAnd, LOr, LEqual,
    LGreater, LLess (two operands), Break, Continue, BreakPoint (none) and every operand is an integer constant (Zero / One /
    Ones / Byte- / Word- / DWord- / QWordPrefix) or a string - e.g. Method(_STA){Return(0x0F)}.  The encoded table is shorter
    than 2^28 bytes.  Productions added: TermList = declarations and Type1 / Type2 opcodes whose operands are all TermArgs
    (DefReturn, DefSleep, DefStall, DefLNot, DefLAnd, DefLOr, DefLEqual, DefLGreater, DefLLess, DefBreak, DefContinue,
    DefBreakPoint), TermArg = integer constant | String.  The statements of a Method body are part of the Method's
    namespace entry (in order); a statement of any other scope is an anonymous entry of that scope.
    NOT in the fragment: top-level Scope directives and several tables (F9 does not subsume F3 .. F8 / TN8 - the statements
    are proved for one table of items only; the Scope / multi-table layers are stated over items without statements), operands that are
    expressions / names / Local / Arg objects, Store and the other operators with a Target, If / Else / While (known finding
    c11:if-without-body lives there).

    Parser behaviour that only statements exercise: the first pass leaves a statement and its operands as consecutive objects
    of the enclosing ScopeBlock (parseArg stops at the first TermArg), passes 2-4 leave them alone, and resolveMethodCalls
    - through connectNonNamedObjArg / attachSiblingsAsArgs with useParent - detaches the [argCount] following siblings
    and appends them to the operator (an exact layer for this pass: Aml/ParserFragF9Calls.v, [lay2] -> [lay5]);
    connectNonNamedObjArgs then finds every operator complete.  The view renders the statements of a Method body into
    the Method's entry (renderStmt / renderExpr / exprKids), which [ns] does with r_seq; elsewhere both list them as
    anonymous entries (the view after the declarations of the scope, [ns] in program order: a permutation).  The items of
    F1 .. F8 embed into those of F9, which have one constructor more ([emb], Aml/ParserFragF1.v): the lemmas about the first
    pass, connectNamedObjArgs, the conditions of the later walks and the view of a list of items are proved once over the
    items of F9 (Aml/ParserFragF9First.v, F9Conn, F9Top, F9View) and read over the items of F1 .. F8 through the embedding
    (Aml/ParserFragF1First.v, F1Conn, F1Top, F1View); the theorems for F0 .. F8, T2, T2F7, TN and TN8 use them inside
    [load_tn] / [view_tn_eq] (Aml/ParserFragTNTop.v, ParserFragTNView.v). *)
Theorem C11_parse_encode_partial_F9 : forall tables,
  wf_program tables = true -> in_fragment_F9 tables = true -> parse_encode_statement tables.
Proof. exact parse_encode_F9. Qed.
Print Assumptions C11_parse_encode_partial_F9.
