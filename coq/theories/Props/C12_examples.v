(** Non-vacuity for C12: readers satisfying the hypotheses, and concrete runs of the model. *)
From Coq Require Import NArith List Lia.
From FF Require Import Lib.Word Gen.Consts_device_acpi_aml Aml.Stream Aml.Lex Aml.LexProofs Aml.Tree Aml.TreeSpec Aml.Parser Aml.ParserProofs Aml.ParserProofsTop Aml.ParserTotalBase Aml.ParserTotalFirst Aml.ParserTotalConn Aml.ParserTotalTop Aml.ParserTotalNonNamed Aml.ParserTotalCalls Aml.ParserTotalReloc Aml.ParserTotalMerge Aml.ParserTotalResolve Aml.ParserTotalLex Aml.ParserTotalTree Aml.ParserTotalDefer Aml.ParserTotalDeferW Aml.ParserTotalDeferV Aml.ParserTotalTyped Aml.ParserTotalShape Aml.ParserTotalChain Aml.ParserTotalConn2 Aml.ParserTotalPass2 Aml.ParserTotalBenign Aml.ParserTotalFirst2 Aml.ParserTotalPass1 Aml.ParserTotalHandle Aml.ParserTotalLoad Aml.ParserTotalMeth Aml.ParserTotalFuel.
Import ListNotations.
Local Open Scope N_scope.

Definition ex_reader : reader := fst (setPkgEnd (init_reader [0x5c; 0x2e; 0x41; 0x42; 0x43; 0x44; 0x45; 0x46; 0x47; 0x48; 0xff; 0x99] 0) 10).

Example C12_reader_nonvacuous : reader_wf ex_reader /\ no_wrap ex_reader.
Proof.
  unfold reader_wf, no_wrap, ex_reader; cbn. unfold two32.
  split; [split; [reflexivity|]; split; [lia|]; split; [lia|repeat constructor]|lia].
Qed.

(** a second reader that differs beyond pkgEnd only *)
Definition ex_reader' : reader := fst (setPkgEnd (init_reader [0x5c; 0x2e; 0x41; 0x42; 0x43; 0x44; 0x45; 0x46; 0x47; 0x48; 0x00; 0x01] 0) 10).
Example C12_sim_nonvacuous : sim ex_reader ex_reader'.
Proof.
  constructor; try reflexivity. intros i Hi. cbn in Hi.
  unfold byte_at. cbn [r_data ex_reader ex_reader' init_reader setPkgEnd setOffset fst set_pkgEnd_raw set_offset_raw].
  assert (H : (N.to_nat i < 10)%nat) by lia.
  generalize dependent (N.to_nat i). intros k Hk.
  repeat (destruct k as [|k]; [reflexivity|]). lia.
Qed.

Example C12_name_example :
  parseNameString ex_reader = Ok (mkSlice (Some 0) 10, true, set_offset_raw ex_reader 10).
Proof. vm_compute. reflexivity. Qed.

(** the 12-byte table that made relocateNamedObjects recurse without bound (fixed in /repo 648a1d7) is now a parse
    error of the model, reached within the linear fuel; so is the byte list that extended past the table (984f446) *)
Example C12_selfreloc_rejected :
  fst (fst (load [[0x5b; 0x82; 0x0a; 0x2e; 0x41; 0x41; 0x41; 0x41; 0x41; 0x41; 0x41; 0x41]])) = 1.
Proof. vm_compute. reflexivity. Qed.

Example C12_bytelist_rejected :
  fst (fst (load [[0x5b; 0x81; 0x0f; 0x41; 0x41; 0x41; 0x41; 0x00; 0x02; 0x11; 0x07; 0x0c; 0xff; 0xff; 0xff; 0x7f; 0x00]])) = 1.
Proof. vm_compute. reflexivity. Qed.

(** a well-formed table parses (class 0) *)
Example C12_valid_parses :
  fst (fst (load [[0x14; 0x0b; 0x4d; 0x54; 0x48; 0x30; 0x02; 0xa4; 0x72; 0x68; 0x69; 0x00; 0x08; 0x58; 0x58; 0x58; 0x58; 0x4d; 0x54; 0x48; 0x30; 0x01; 0x0a; 0x02]])) = 0.
Proof. vm_compute. reflexivity. Qed.

(** hypotheses of the whole-parser theorems are satisfiable, and the conclusion is not vacuous: a loaded program
    stores non-trivial slices *)
Example C12_payload_nonvacuous :
  Forall payload_ok [[0x08; 0x41; 0x42; 0x43; 0x44; 0x0d; 0x61; 0x62; 0x00]].
Proof. repeat constructor; vm_compute; discriminate. Qed.

Example C12_pool_has_slices :
  let '(class, t, imgs) := load [[0x08; 0x41; 0x42; 0x43; 0x44; 0x0d; 0x61; 0x62; 0x00]] in
  class = 0 /\ existsb (fun o => match o_value o with Some (VBytes 0 (mkSlice (Some 42) 2)) => true | _ => false end) (t_pool t) = true.
Proof. vm_compute. split; reflexivity. Qed.

(** ---- first pass: no panic / tree relation / fuel ---- *)
Definition ex_image : list N := table_image [0x5b; 0x80; 0x52; 0x45; 0x47; 0x30; 0x01; 0x0b; 0x00; 0x30; 0x0a; 0x04;
                                             0x5b; 0x81; 0x12; 0x52; 0x45; 0x47; 0x30; 0x01; 0x46; 0x4c; 0x44; 0x30; 0x08; 0x00; 0x08; 0x46; 0x4c; 0x44; 0x31; 0x08;
                                             0x10; 0x0d; 0x5c; 0x5f; 0x53; 0x42; 0x5f; 0x08; 0x5f; 0x41; 0x44; 0x52; 0x0a; 0x05].

Lemma ex_image_small : image_small ex_image.
Proof. split; [apply table_image_small; repeat constructor|vm_compute; discriminate]. Qed.

(** the hypotheses of C12_parse_total_partial_nopanic_first_pass / _R_first_pass are satisfiable (a pool with a root scope) *)
Example C12_first_pass_nonvacuous :
  exists (tree : ObjectTree value) (g : ghost),
    R tree g /\
    (forall i o, TreeSpec.get tree i = Some o -> o_opcode o <> opFreed -> opInfo (o_infoIndex o) <> None) /\
    glive g 0 /\
    Forall (fun b => b < 256) ex_image /\ N.of_nat (length ex_image) + 0x10000400 <= two32 /\
    N.of_nat (length (t_pool tree)) + 4 * N.of_nat (length ex_image) + 4 <= InvalidIndex.
Proof.
  destruct first_pass_hyps_example as (tree & g & HR & Hi & H0 & Hl). exists tree, g.
  split; [exact HR|]. split; [exact Hi|]. split; [exact H0|].
  split; [apply ex_image_small|]. split; [apply ex_image_small|].
  assert (E : N.of_nat (length ex_image) = 82) by reflexivity. rewrite E.
  assert (EI : InvalidIndex = 0xffffffff) by reflexivity. rewrite EI. lia.
Qed.

(** ... and so are those of the fuel theorem: the state in which ParseAML starts its first pass *)
Example C12_first_pass_fuel_nonvacuous :
  exists (tree : ObjectTree value) (g : ghost),
    let s := with_scopeStack (init_state tree [] 1 ex_image) [0] in
    R (p_tree s) g /\
    (forall i o, TreeSpec.get (p_tree s) i = Some o -> o_opcode o <> opFreed -> opInfo (o_infoIndex o) <> None) /\
    reader_wf (p_r s) /\ r_len (p_r s) + 0x10000400 <= two32 /\ r_offset (p_r s) <= r_len (p_r s) /\
    p_allBlocks s = false /\ Forall (glive g) (p_scopeStack s) /\ p_scopeStack s <> [] /\
    N.of_nat (length (t_pool (p_tree s))) + 4 * (r_len (p_r s) - r_offset (p_r s)) + 4 <= InvalidIndex.
Proof.
  destruct first_pass_hyps_example as (tree & g & HR & Hi & H0 & Hl). exists tree, g.
  pose proof ex_image_small as Him.
  assert (Hcap : N.of_nat (length (t_pool tree)) + 4 * N.of_nat (length ex_image) + 4 <= InvalidIndex).
  { assert (E : N.of_nat (length ex_image) = 82) by reflexivity. rewrite E.
    assert (EI : InvalidIndex = 0xffffffff) by reflexivity. rewrite EI. lia. }
  destruct (init_FI tree g [] 1 ex_image HR Hi H0 Him Hcap) as ([F1 F2 (F3 & F4 & F5) F6 F7] & Hroom & _).
  cbv zeta. repeat (split; [assumption|]). split; [discriminate|exact Hroom].
Qed.

(** concrete run: the first pass of the example table over the default scopes returns parseResultOk and leaves
    13 objects in the pool (5 default scopes + OpRegion with 4 args ... ) *)
Example C12_first_pass_runs :
  match CreateDefaultScopes (@NewObjectTree value) 0 with
  | Ok t0 => match (scopeEnter 0 ;;; parseObjectList 400) (init_state t0 [] 1 ex_image) with
             | Ok (ROk, s') => Nat.ltb 10 (length (t_pool (p_tree s'))) = true
             | _ => False
             end
  | _ => False
  end.
Proof. vm_compute. reflexivity. Qed.

(** ---- first pass + connectNamedObjArgs ---- *)
Example C12_passes12_nonvacuous :
  exists (tree : ObjectTree value) (g : ghost),
    R tree g /\
    (forall i o, TreeSpec.get tree i = Some o -> o_opcode o <> opFreed -> opInfo (o_infoIndex o) <> None) /\
    glive g 0 /\ pool_ok [] tree /\
    Forall (fun b => b < 256) ex_image /\ N.of_nat (length ex_image) + 0x10000400 <= two32 /\
    N.of_nat (length (t_pool tree)) + 4 * N.of_nat (length ex_image) + 4 <= InvalidIndex.
Proof.
  destruct passes12_hyps_example as (tree & g & HR & Hi & H0 & Hp & Hl). exists tree, g.
  split; [exact HR|]. split; [exact Hi|]. split; [exact H0|]. split; [exact Hp|].
  split; [apply ex_image_small|]. split; [apply ex_image_small|].
  assert (E : N.of_nat (length ex_image) = 82) by reflexivity. rewrite E.
  assert (EI : InvalidIndex = 0xffffffff) by reflexivity. rewrite EI. lia.
Qed.

(** concrete run of both passes over the default scopes: connectNamedObjArgs returns parseResultOk and has given the
    operation region its name (0x30474552 = "REG0" little-endian is not checked here, only the outcome) *)
Example C12_passes12_runs :
  match CreateDefaultScopes (@NewObjectTree value) 0 with
  | Ok t0 => match (scopeEnter 0 ;;;
                    mlet r1 <~ parseObjectList 400 ;;
                    if pres_eqb r1 RFailed then ret RFailed else connectNamedObjArgs 400 0) (init_state t0 [] 1 ex_image) with
             | Ok (ROk, _) => True
             | _ => False
             end
  | _ => False
  end.
Proof. vm_compute. exact I. Qed.

(** ---- the last two passes ---- *)
(** the hypotheses of the resolveMethodCalls / connectNonNamedObjArgs theorems are satisfiable (pool with a root scope:
    no name-path-or-method-call object at all), and a concrete run of the complete ParseAML on a table with a method,
    a forward call and an operator whose operands are attached by the last pass succeeds *)
Example C12_last_passes_nonvacuous :
  exists (s : pstate) (g : ghost),
    R (p_tree s) g /\
    (forall i o, TreeSpec.get (p_tree s) i = Some o -> o_opcode o <> opFreed -> opInfo (o_infoIndex o) <> None) /\
    pool_ok (p_tables s) (p_tree s) /\
    (forall i o, TreeSpec.get (p_tree s) i = Some o -> o_opcode o <> opFreed -> o_opcode o = aml_pOpIntNamePathOrMethodCall ->
                 exists tbl sl, o_value o = Some (VBytes tbl sl)) /\
    glive g 0 /\ groot g 0.
Proof.
  destruct last_passes_hyps_example as (s & g & H). exists s, g. exact H.
Qed.

Example C12_all_passes_run :
  fst (fst (load [[0x14; 0x0b; 0x4d; 0x54; 0x48; 0x30; 0x02; 0xa4; 0x72; 0x68; 0x69; 0x00;
                   0x08; 0x58; 0x58; 0x58; 0x58; 0x4d; 0x54; 0x48; 0x30; 0x01; 0x0a; 0x02]])) = 0.
Proof. vm_compute. reflexivity. Qed.

Example C12_relocate_nonvacuous :
  exists (s : pstate) (g : ghost),
    R (p_tree s) g /\
    (forall i o, TreeSpec.get (p_tree s) i = Some o -> o_opcode o <> opFreed -> opInfo (o_infoIndex o) <> None) /\
    pool_ok (p_tables s) (p_tree s) /\ glive g 0 /\
    (exists o, TreeSpec.get (p_tree s) 0 = Some o /\ o_opcode o = aml_pOpIntScopeBlock).
Proof. destruct reloc_hyps_example as (s & g & H). exists s, g. exact H. Qed.

(** a table whose device is declared with a two-segment path and relocated below \_SB_ parses (all passes) *)
Example C12_relocation_runs :
  fst (fst (load [[0x5b; 0x82; 0x0b; 0x5c; 0x2e; 0x5f; 0x53; 0x42; 0x5f; 0x44; 0x45; 0x56; 0x32]])) = 0.
Proof. vm_compute. reflexivity. Qed.

(** the hypotheses of C12_parse_total_partial_nopanic_mergeScopeDirectives are satisfiable by a state that contains a
    Scope directive of the current table (slot 2: Scope(_SB_) { Zero }, next to \_SB_ below the root), and on that state
    the pass merges the directive: result ok, mergedScopes = 1 *)
Example C12_merge_nonvacuous :
  exists (s : pstate) (g : ghost) (x : N),
    R (p_tree s) g /\
    (forall i o, TreeSpec.get (p_tree s) i = Some o -> o_opcode o <> opFreed -> opInfo (o_infoIndex o) <> None) /\
    pool_ok (p_tables s) (p_tree s) /\
    glive g 0 /\ groot g 0 /\
    (exists o, TreeSpec.get (p_tree s) 0 = Some o /\ o_opcode o = aml_pOpIntScopeBlock) /\
    (forall d dobj, TreeSpec.get (p_tree s) d = Some dobj -> o_opcode dobj = aml_pOpScope -> o_tableHandle dobj = p_handle s ->
       name_lead (o_name dobj) = false /\
       (forall op fl af, opInfo (o_infoIndex dobj) = Some (op, fl, af) -> hasFlag fl aml_pOpFlagNamed = false) /\
       exists n c no co tbl sl,
         kids g d = [n; c] /\ kids g n = [] /\
         TreeSpec.get (p_tree s) n = Some no /\ o_opcode no <> aml_pOpIntScopeBlock /\ o_opcode no <> aml_pOpScope /\
         o_value no = Some (VBytes tbl sl) /\
         (forall s0 bytes, p_tables s0 = p_tables s -> slice_bytes s0 tbl sl = Ok bytes -> good_path bytes) /\
         TreeSpec.get (p_tree s) c = Some co /\ o_opcode co = aml_pOpIntScopeBlock) /\
    glive g x /\
    (exists dobj, TreeSpec.get (p_tree s) 2 = Some dobj /\ o_opcode dobj = aml_pOpScope /\ o_tableHandle dobj = p_handle s) /\
    match mergeScopeDirectives 10 x s with Ok (r, s') => r = ROk /\ p_mergedScopes s' = 1 | _ => False end.
Proof. exact merge_hyps_example. Qed.

(** a table with Scope directives - absolute, relative, nested, one whose target does not exist yet - parses (all passes) *)
Example C12_merge_runs :
  fst (fst (load [[0x10; 0x0d; 0x5c; 0x5f; 0x53; 0x42; 0x5f; 0x08; 0x41; 0x42; 0x43; 0x44; 0x0a; 0x05;
                   0x10; 0x12; 0x5f; 0x53; 0x42; 0x5f; 0x10; 0x0c; 0x5e; 0x5f; 0x54; 0x5a; 0x5f; 0x08; 0x58; 0x58; 0x58; 0x58; 0x00]])) = 0.
Proof. vm_compute. reflexivity. Qed.

(** on the state of C12_merge_nonvacuous (which satisfies the hypotheses of C12_parse_total_partial_nopanic_resolve_loop too)
    the whole loop runs: the directive is merged, nothing is left to relocate *)
Example C12_resolve_loop_runs :
  match resolve_loop 5 10 mex_state with Ok (r, s') => r = ROk /\ p_mergedScopes s' = 1 | _ => False end.
Proof. vm_compute. split; reflexivity. Qed.

(** the hypotheses of C12_parse_total_partial_nopanic_deferred_block are satisfiable by the initial state of the table
    While (Zero) { } over a pool that holds the root and the While object the first pass left behind (no children yet), and on
    that state the block is parsed: result ok, the pool now holds four objects (root, While, the Zero predicate, the body) *)
Example C12_deferred_block_nonvacuous :
  exists (s : pstate) (g : ghost) (obj : N) (oo : Obj) (op fl af : N),
    R (p_tree s) g /\
    (forall i o, TreeSpec.get (p_tree s) i = Some o -> o_opcode o <> opFreed -> opInfo (o_infoIndex o) <> None) /\
    rok (p_r s) /\ Forall (glive g) (p_scopeStack s) /\ Inv (p_tables s) s /\
    glive g 0 /\ glive g obj /\
    TreeSpec.get (p_tree s) obj = Some oo /\ opInfo (o_infoIndex oo) = Some (op, fl, af) /\
    hasFlag fl aml_pOpFlagDeferParsing = true /\ o_tableHandle oo = p_handle s /\
    (has_fl af -> has_parent g obj) /\ TM NoX s g /\
    lp s + 8 * r_len (p_r s) + 7 <= InvalidIndex /\
    match parseDeferredBlocks 5 400 obj s with Ok (res, s') => res = ROk /\ lp s' = 4 | _ => False end.
Proof. exact deferred_hyps_example. Qed.

(** the hypotheses of C12_parse_total_partial_nopanic_deferred_walk are satisfiable by the same state, walking from the root:
    the walk meets one pending object (the While), parses it and returns ok with four objects in the pool *)
Example C12_deferred_walk_nonvacuous :
  exists (s : pstate) (g : ghost) (n : N),
    R (p_tree s) g /\
    (forall i o, TreeSpec.get (p_tree s) i = Some o -> o_opcode o <> opFreed -> opInfo (o_infoIndex o) <> None) /\
    rok (p_r s) /\ Forall (glive g) (p_scopeStack s) /\ Inv (p_tables s) s /\
    glive g 0 /\ TM NoX s g /\ dcnt s g 0 n /\
    lp s + n * (8 * r_len (p_r s) + 3) + 4 <= InvalidIndex /\
    match parseDeferredBlocks 6 400 0 s with Ok (res, s') => res = ROk /\ lp s' = 4 | _ => False end.
Proof. exact walk_hyps_example. Qed.

(** the hypotheses of C12_parse_total_partial_nopanic_tail are satisfiable by the same state; the three last passes return ok *)
Example C12_tail_nonvacuous :
  exists (s : pstate) (g : ghost) (n : N),
    R (p_tree s) g /\
    (forall i o, TreeSpec.get (p_tree s) i = Some o -> o_opcode o <> opFreed -> opInfo (o_infoIndex o) <> None) /\
    rok (p_r s) /\ Forall (glive g) (p_scopeStack s) /\ Inv (p_tables s) s /\
    glive g 0 /\ groot g 0 /\ TM NoX s g /\
    (forall i o, TreeSpec.get (p_tree s) i = Some o -> o_opcode o <> opFreed -> o_opcode o = aml_pOpIntNamePathOrMethodCall ->
                 exists tbl sl, o_value o = Some (VBytes tbl sl)) /\
    dcnt s g 0 n /\
    lp s + n * (8 * r_len (p_r s) + 3) + 4 <= InvalidIndex /\
    match parse_tail 6 400 10 10 s with Ok (b, s') => b = true /\ lp s' = 4 | _ => False end.
Proof. exact tail_hyps_example. Qed.

(** the same with a pending BankField (object x with a FieldList argument, pending, child of the root): on the table
    BankField (REG0, BNK0, Zero, 1) { FLD0, 8 } the block inserts the NamedField FLD0 behind the BankField into the list of the
    root, which the walk is iterating; all three passes return ok, seven objects in the pool *)
Example C12_tail_bankfield_nonvacuous :
  exists (s : pstate) (g : ghost) (n : N),
    R (p_tree s) g /\
    (forall i o, TreeSpec.get (p_tree s) i = Some o -> o_opcode o <> opFreed -> opInfo (o_infoIndex o) <> None) /\
    rok (p_r s) /\ Forall (glive g) (p_scopeStack s) /\ Inv (p_tables s) s /\
    glive g 0 /\ groot g 0 /\ TM NoX s g /\
    (forall i o, TreeSpec.get (p_tree s) i = Some o -> o_opcode o <> opFreed -> o_opcode o = aml_pOpIntNamePathOrMethodCall ->
                 exists tbl sl, o_value o = Some (VBytes tbl sl)) /\
    dcnt s g 0 n /\
    (exists x, hasfl s x /\ isflag s x = true /\ In x (kids g 0)) /\
    lp s + n * (8 * r_len (p_r s) + 3) + 4 <= InvalidIndex /\
    match parse_tail 6 400 10 10 s with Ok (b, s') => b = true /\ lp s' = 7 | _ => False end.
Proof. exact tail_bankfield_example. Qed.

(** a table with a While loop, a Buffer with a computed size, a BankField with its field list, a method and calls of it inside
    the deferred blocks parses (all passes) *)
Example C12_deferred_runs :
  fst (fst (load [[0x14; 0x08; 0x4d; 0x54; 0x48; 0x30; 0x01; 0xa4; 0x68;
                   0x08; 0x42; 0x55; 0x46; 0x30; 0x11; 0x05; 0x0a; 0x02; 0xaa; 0xbb;
                   0x14; 0x14; 0x4d; 0x54; 0x48; 0x31; 0x00; 0xa2; 0x0d; 0x4d; 0x54; 0x48; 0x30; 0x01; 0x70; 0x4d; 0x54; 0x48; 0x30; 0x00; 0x60]])) = 0.
Proof. vm_compute. reflexivity. Qed.

(** parse_head returns (so C12_parse_total_partial_typed_head is not vacuous): the first four passes on a table with a
    method, a call of it by name and a Scope directive, over the default scopes *)
Example C12_typed_head_runs :
  match CreateDefaultScopes (@NewObjectTree value) 0 with
  | Ok t => match parse_head 200 (init_state t [] 1 (table_image [0x14; 0x08; 0x4d; 0x54; 0x48; 0x30; 0x01; 0xa4; 0x68;
                                                            0x4d; 0x54; 0x48; 0x30; 0x01;
                                                            0x10; 0x05; 0x5f; 0x53; 0x42; 0x5f])) with
            | Ok (b, _) => b = true | _ => False end
  | _ => False
  end.
Proof. vm_compute. reflexivity. Qed.

(** the hypotheses of C12_parse_total_partial_nopanic_rest are satisfiable (the state of C12_deferred_walk_nonvacuous with the
    scope stack emptied) and on that state the resolve loop and the three last passes return ok *)
Example C12_rest_nonvacuous :
  exists (s : pstate) (g : ghost),
    R (p_tree s) g /\
    (forall i o, TreeSpec.get (p_tree s) i = Some o -> o_opcode o <> opFreed -> opInfo (o_infoIndex o) <> None) /\
    rok (p_r s) /\ p_scopeStack s = [] /\ Inv (p_tables s) s /\
    glive g 0 /\ groot g 0 /\ is_sb s 0 /\ tyS NoX (p_tables s) (p_handle s) (p_tree s) g /\
    TM3 (p_tree s) g /\ PEND s g /\
    (forall i o, TreeSpec.get (p_tree s) i = Some o -> o_opcode o <> opFreed -> o_opcode o = aml_pOpIntNamePathOrMethodCall ->
                 exists tbl sl, o_value o = Some (VBytes tbl sl)) /\
    lp s + lp s * (8 * r_len (p_r s) + 3) + 4 <= InvalidIndex /\
    match parse_rest 10 s with Ok (b, s') => b = true /\ lp s' = 4 | _ => False end.
Proof. exact rest_hyps_example. Qed.

(** the hypotheses of C12_parse_total_partial_nopanic_rest2 are satisfiable by the same state; passes 2-6 return ok *)
Example C12_rest2_nonvacuous :
  exists (s : pstate) (g : ghost),
    R (p_tree s) g /\
    (forall i o, TreeSpec.get (p_tree s) i = Some o -> o_opcode o <> opFreed -> opInfo (o_infoIndex o) <> None) /\
    rok (p_r s) /\ p_scopeStack s = [] /\ Inv (p_tables s) s /\ SH3 s g /\
    (forall i o, TreeSpec.get (p_tree s) i = Some o -> o_opcode o <> opFreed -> o_opcode o = aml_pOpIntNamePathOrMethodCall ->
                 exists tbl sl, o_value o = Some (VBytes tbl sl)) /\
    lp s + lp s * (8 * r_len (p_r s) + 3) + 4 <= InvalidIndex /\
    match parse_rest2 10 s with Ok (b, s') => b = true /\ lp s' = 4 | _ => False end.
Proof. exact rest2_hyps_example. Qed.

(** the hypotheses of C12_parse_total_never_panics (hence of C12_parse_total_partial_first_pass_shape) are satisfiable: the
    pool with just the root scope, the table While (Zero) { } with handle 1; ParseAML returns true with four objects *)
Example C12_never_panics_nonvacuous :
  exists (tree : T) (g : ghost) (data : list N),
    R tree g /\
    (forall i o, TreeSpec.get tree i = Some o -> o_opcode o <> opFreed -> opInfo (o_infoIndex o) <> None) /\
    glive g 0 /\ groot g 0 /\
    (exists o, TreeSpec.get tree 0 = Some o /\ o_opcode o = aml_pOpIntScopeBlock) /\
    TM3 tree g /\
    (forall i o, TreeSpec.get tree i = Some o -> o_opcode o <> opFreed -> o_opcode o = aml_pOpIntNamePathOrMethodCall ->
                 exists tbl sl, o_value o = Some (VBytes tbl sl)) /\
    pool_ok [] tree /\
    (forall i o, TreeSpec.get tree i = Some o -> o_tableHandle o <> 1) /\
    image_small data /\
    (let L := N.of_nat (length (t_pool tree)) + 4 * N.of_nat (length data) + 2 in
     L + L * (8 * N.of_nat (length data) + 3) + 4 <= InvalidIndex) /\
    match parseAML_body 200 (init_state tree [] 1 data) with Ok (b, s') => b = true /\ lp s' = 4 | _ => False end.
Proof. exact parseAML_hyps_example. Qed.

(** ---- the load sequence: the hypotheses of C12_parse_total_load_never_panics ([SEQ]: the sizes at each step) are satisfiable - two tables over the default scopes, Name(AAAA, One) and Scope(\_SB_) { Name(BBBB, Zero) }; both load
    (outcome class 0), the pools hold 9 and 15 objects ---- *)
Definition lx_p1 : list N := [0x08; 0x41; 0x41; 0x41; 0x41; 0x01].
Definition lx_p2 : list N := [0x10; 0x0c; 0x5c; 0x5f; 0x53; 0x42; 0x5f; 0x08; 0x42; 0x42; 0x42; 0x42; 0x00].
Definition lx_s1 : pstate := Eval vm_compute in
  match parseAML ds_tree [] 1 (table_image lx_p1) with Ok (_, s) => s | _ => init_state ds_tree [] 1 [] end.
Definition lx_s2 : pstate := Eval vm_compute in
  match parseAML (p_tree lx_s1) [table_image lx_p1] 2 (table_image lx_p2) with Ok (_, s) => s | _ => init_state ds_tree [] 1 [] end.
Lemma lx_e1 : parseAML ds_tree [] 1 (table_image lx_p1) = Ok (true, lx_s1).
Proof. vm_compute. reflexivity. Qed.
Lemma lx_e2 : parseAML (p_tree lx_s1) [table_image lx_p1] 2 (table_image lx_p2) = Ok (true, lx_s2).
Proof. vm_compute. reflexivity. Qed.

(** the sizes at each step: the payload's bytes, then the two bounds on the length of the image *)
Ltac lx_fits := split; [split; [apply table_image_small; repeat constructor|vm_compute; discriminate]|vm_compute; discriminate].
Lemma lx_f1 : fits ds_tree (table_image lx_p1).
Proof. lx_fits. Qed.
Lemma lx_f2 : fits (p_tree lx_s1) (table_image lx_p2).
Proof. lx_fits. Qed.

Example C12_load_sequence_nonvacuous :
  INV ds_tree ds_ghost [] 1 /\ SEQ ds_tree [] 1 [lx_p1; lx_p2] /\ fst (fst (load [lx_p1; lx_p2])) = 0.
Proof.
  split; [exact ds_INV|]. split; [|vm_compute; reflexivity].
  cbn [SEQ]. cbv zeta. split; [exact lx_f1|].
  intros s E. rewrite lx_e1 in E. assert (Es : s = lx_s1) by congruence. subst s. clear E.
  split; [exact lx_f2|]. intros s _. exact I.
Qed.

(** the hypotheses of C12_parse_total_partial_resolveMethodCalls_keeps_methods / _connectNonNamedObjArgs_keeps_methods are satisfiable by a
    pool that DOES hold a Method (root scope, Method with its name path and flags byte); both passes return ok on it *)
Example C12_keeps_methods_nonvacuous :
  R (p_tree mx_state) mx_ghost /\
  (forall i o, TreeSpec.get (p_tree mx_state) i = Some o -> o_opcode o <> opFreed -> opInfo (o_infoIndex o) <> None) /\
  pool_ok (p_tables mx_state) (p_tree mx_state) /\
  (forall i o, TreeSpec.get (p_tree mx_state) i = Some o -> o_opcode o <> opFreed -> o_opcode o = aml_pOpIntNamePathOrMethodCall ->
               exists tbl sl, o_value o = Some (VBytes tbl sl)) /\
  glive mx_ghost 0 /\ groot mx_ghost 0 /\ TM3 (p_tree mx_state) mx_ghost /\
  (exists m mo, TreeSpec.get (p_tree mx_state) m = Some mo /\ o_opcode mo = aml_pOpMethod) /\
  match resolveMethodCalls 10 0 mx_state with Ok (r, _) => r = ROk | _ => False end /\
  match connectNonNamedObjArgs 10 0 mx_state with Ok (r, _) => r = ROk | _ => False end.
Proof. exact mx_hyps. Qed.

(** the fuel hypotheses of the C12_parse_total_partial_fuel_* theorems hold for the pool with a Method (4 slots, fuel 10 >= 8); the walks
    return ok *)
Example C12_fuel_nonvacuous :
  (2 * length (t_pool (p_tree mx_state)) <= 10)%nat /\ glive mx_ghost 0 /\ groot mx_ghost 0 /\ R (p_tree mx_state) mx_ghost /\
  match connectNamedObjArgs 10 0 mx_state with Ok (r, _) => r = ROk | _ => False end /\
  match parse_tail2 10 10 mx_state with Ok (b, _) => b = true | _ => False end.
Proof.
  destruct mx_hyps as (A & _ & _ & _ & B & C & _).
  split; [vm_compute; lia|]. split; [exact B|]. split; [exact C|]. split; [exact A|]. split; vm_compute; reflexivity.
Qed.

(** C12_parse_total_partial_fuel_insideSelf / _scopeOf: the hypotheses hold for the pool with a Method; from the name path (depth 2) the
    climb returns false, the Method has no ScopeBlock child *)
Example C12_fuel_inner_nonvacuous :
  TI mx_state mx_ghost /\ glive mx_ghost 2 /\
  match (mlet pf <~ poolFuel ;; insideSelf_go pf (Some 2) 3) mx_state with Ok (b, _) => b = false | _ => False end /\
  match scopeOf 1 mx_state with Ok (r, _) => r = None | _ => False end.
Proof.
  destruct mx_hyps as (A & B & C & _).
  split; [constructor; assumption|]. split; [split; [vm_compute; reflexivity|vm_compute; intuition discriminate]|].
  split; vm_compute; reflexivity.
Qed.

(** the size hypothesis [fits] / [SEQ] of C12_parse_total_load_never_panics at a REAL size: any payload of 8612 bytes (the DSDT.aml of
    /repo's tabletest directory is 8648 bytes = 36-byte header + 8612) over the default scopes satisfies it, so loading it never
    panics ... *)
Example C12_load_never_panics_real_size :
  forall payload : list N, Forall (fun b => b < 256) payload -> N.of_nat (length payload) = 8612 ->
    SEQ ds_tree [] 1 [payload] /\ fst (fst (load [payload])) <> 2.
Proof.
  intros payload Hb Hl.
  assert (HS : SEQ ds_tree [] 1 [payload]).
  { cbn [SEQ]. cbv zeta. split; [|intros s _; exact I]. split.
    - split; [apply table_image_small; exact Hb|]. rewrite table_image_length, Nat2N.inj_add, Hl. vm_compute. discriminate.
    - cbv zeta. rewrite table_image_length, Nat2N.inj_add, Hl. vm_compute. discriminate. }
  split; [exact HS|exact (load_never_panics [payload] HS)].
Qed.

(** ... but [fits] is a QUADRATIC bound (about 32 * len^2 <= 2^32 for a small pool): over the default scopes no image of 12000 bytes
    satisfies it, whatever its contents - tables above about 11.5 KB are outside the load theorems *)
Example C12_fits_excludes_12000_bytes : forall data : list N, N.of_nat (length data) = 12000 -> ~ fits ds_tree data.
Proof. intros data Hl (_ & H). cbv zeta in H. rewrite Hl in H. vm_compute in H. apply H. reflexivity. Qed.

(** all three hypotheses of C12_parse_total_parseAML_keeps_invariant TOGETHER (INV of the default scopes, fits, a successful parse of the
    table Name(AAAA, One)), and its conclusion *)
Example C12_parseAML_keeps_invariant_nonvacuous :
  INV ds_tree ds_ghost [] 1 /\ fits ds_tree (table_image lx_p1) /\ parseAML ds_tree [] 1 (table_image lx_p1) = Ok (true, lx_s1) /\
  exists g', INV (p_tree lx_s1) g' ([] ++ [table_image lx_p1]) (1 + 1).
Proof.
  split; [exact ds_INV|]. split; [exact lx_f1|]. split; [exact lx_e1|].
  exact (parseAML_keeps_INV ds_tree ds_ghost [] 1 (table_image lx_p1) lx_s1 ds_INV lx_f1 lx_e1).
Qed.

(** the C12_parse_total_partial_fuel_* theorems at a state the PARSER produced (the pool after loading Name(AAAA, One): 9 slots) and with
    the fuel ParseAML itself uses for that table, parse_fuel (42 + 6) = 448: the invariants come from the theorem above, the fuel
    hypothesis 2 * 9 <= 448 holds, and the theorems give that the walks return *)
Example C12_fuel_real_state_nonvacuous :
  let F := parse_fuel (length (table_image lx_p1) + length (t_pool ds_tree)) in
  (2 * length (t_pool (p_tree lx_s1)) <= F)%nat /\
  (exists g, TI lx_s1 g /\ typed (p_tree lx_s1) /\ glive g 0 /\ groot g 0) /\
  (exists r s', connectNamedObjArgs F 0 lx_s1 = Ok (r, s')) /\
  (exists r s', resolveMethodCalls F 0 lx_s1 = Ok (r, s')) /\
  (exists r s', connectNonNamedObjArgs F 0 lx_s1 = Ok (r, s')) /\
  (exists r s', parse_tail2 F F lx_s1 = Ok (r, s')).
Proof.
  intros F.
  assert (HF : (2 * length (t_pool (p_tree lx_s1)) <= F)%nat) by (vm_compute; lia).
  destruct (parseAML_keeps_INV ds_tree ds_ghost [] 1 (table_image lx_p1) lx_s1 ds_INV lx_f1 lx_e1)
    as (g & HR & Hi & H0 & Hr0 & _ & _ & Hty & Hpool & _).
  assert (Hp : pool_ok (p_tables lx_s1) (p_tree lx_s1)) by exact Hpool.
  split; [exact HF|]. split; [exists g; split; [constructor; assumption|]; split; [exact Hty|split; [exact H0|exact Hr0]]|].
  split.
  { pose proof (connectNamedObjArgs_returns F 0 lx_s1 g HR Hi Hp H0 HF) as W.
    destruct (connectNamedObjArgs F 0 lx_s1) as [[r s']| |]; [eauto|contradiction..]. }
  split.
  { pose proof (resolveMethodCalls_returns F lx_s1 g HR Hi Hp Hty H0 Hr0 HF) as W.
    destruct (resolveMethodCalls F 0 lx_s1) as [[r s']| |]; [eauto|contradiction..]. }
  split.
  { pose proof (connectNonNamedObjArgs_returns F lx_s1 g HR Hi Hp H0 Hr0 HF) as W.
    destruct (connectNonNamedObjArgs F 0 lx_s1) as [[r s']| |]; [eauto|contradiction..]. }
  { pose proof (tail2_returns F F lx_s1 g HR Hi Hp Hty H0 Hr0 HF HF) as W.
    destruct (parse_tail2 F F lx_s1) as [[r s']| |]; [eauto|contradiction..]. }
Qed.
