(** C06 - tie of pageFaultHandler (kernel/mm/vmm/fault_amd64.go) to the source BY TRANSLATION.

    Gen/Trans_vmm_fault.v is regenerated on every run by gen/gotrans in its "memory as state" mode
    (gen/gotrans/ext_mem.go, config gen/gotrans/vmm_fault.json; see Props/C04_pdt_trans.v and Props/C04_map_trans.v for
    the mode).  The closure the handler passes to walk is the body of [gvisit .. (walk_items ..)]
    (C04_walk_is_translation is the contract); pageEntry is an address (nil = 0; no entry of the recursive window has
    address 0, [F.walk_items_nonzero]); pageEntry.HasFlags / ClearFlags / SetFlags / SetFrame are loads and stores
    resolved by the MMU model at the time of the access.  Seams and their oracles: readCR2Fn returns the fault address;
    mm.AllocFrame is the model's allocator oracle; mapTemporaryFn / unmapFn are the model's [map_temporary] /
    [unmap_page]; kernel.Memcopy(src, dst, PageSize) is the model's page-copy step between the frames the two pages
    resolve to (kernel.Memcopy itself: C06_memcopy_exact); flushTLBEntryFn logs.  nonRecoverablePageFault never returns
    (it prints and panics): its call is recorded and ENDS the translated function, so a run that ends in a kernel panic
    shows the state at that moment and, as its most recent event, the call with the fault address, the register block
    and the error.

    The theorem: for every fault address, register block and state, the regenerated handler ends in the model's state,
    with a kernel panic exactly when the model's outcome is [PANIC + code] - then with the model's error
    ([T.err_of code]: the allocator's error, the temporary mapping's error, or errUnrecoverableFault) - and without one
    (the last event is the flush) exactly when the model resumes; a stray access of the model is [GPanic].
    What the statement observes is [F.fres]: the final machine state and the arguments of the MOST RECENT event if that
    event is nonRecoverablePageFault; the order and arguments of the other seam calls are not part of the statement
    (their effects on the state - flush log, allocator list, memory - are).
    Hypotheses: 64-bit fault address and memory words; [F.fault_stable]: the model resolves the leaf entry of the
    faulting page ONCE (before the allocation, the temporary mapping, the copy and the unmapping) while the code
    dereferences pageEntry again afterwards, three times; they agree when, after the temporary mapping has come and
    gone, the pointer still resolves to the same entry and keeps doing so when that entry is overwritten - which is the
    case when the page tables form a tree and the faulting page is neither the temporary page nor inside the recursive
    window (the domain of C06_cow_ok).
    [C06_fault_handler_is_translation_inv] discharges [F.fault_stable] IN GENERAL on the domain of C06_cow_ok /
    C06_fault_else_panics: the invariant [Inv] of the active space, the fault page outside the recursive window and not
    the temporary page, and - if the page is present, read-only and copy-on-write - showing a data frame (backed, not a
    page table, not in the allocator's hands): no per-state check, for recoverable and non-recoverable faults alike.
    Statements only; proofs are in Vmm/FaultTrans.v and Vmm/StableInvFault.v. *)
From Coq Require Import NArith String List Bool.
From FF Require Import Lib.Word Lib.GoOps Gen.Consts_mm_vmm Gen.Trans_vmm_fault Vmm.Pt Vmm.PtAccess.
From FF Require Vmm.FaultTrans Vmm.MapTrans Vmm.PdtTrans Vmm.StableInvFault.
From FF Require Import Vmm.PtMap Vmm.PtFault.
Module F := FF.Vmm.FaultTrans.
Module M := FF.Vmm.MapTrans.
Module T := FF.Vmm.PdtTrans.
Import ListNotations.
Local Open Scope N_scope.

Theorem C06_fault_handler_is_translation :
  forall (addr regs : N) (s : st) (tr0 : list gcall),
    addr < two64 -> T.mem_w64 s -> F.fault_stable addr s ->
    F.fres (go_vmm_pageFaultHandler (mk_go_vmm_world tr0 s) regs
              T.o_flush F.o_memcopy T.o_maptemp M.o_alloc F.o_nonrec (F.o_cr2 addr) T.o_unmap) =
    match page_fault addr s with
    | Stray => GPanic
    | Ok (s', out) =>
        GOk (s', if out =? 0 then None
                 else Some [GNum addr; GNum regs; err_arg (T.err_of (out - PANIC))])
    end.
Proof. exact F.fault_handler_is_translation. Qed.
Print Assumptions C06_fault_handler_is_translation.

(** no entry address that walk computes is the nil pointer *)
Theorem C06_walk_items_nonzero :
  forall (va l p : N), In (l, p) (walk_items va) -> p <> 0.
Proof. exact F.walk_items_nonzero. Qed.
Print Assumptions C06_walk_items_nonzero.

(** the handler on the whole domain of the C06 fault theorems *)
Theorem C06_fault_handler_is_translation_inv :
  forall (s : st) (A : N) (own : PtTree.ownmap) (addr regs : N) (tr0 : list gcall),
    Inv s A A own -> addr < two64 -> T.mem_w64 s ->
    let page := page_from_addr addr in
    hw_idx page 0 <> 511 -> ~ PtTheorems.same_page page temp_page ->
    (forall e, cow_pre s A page = Some e ->
       backed s (hw_frame e) = true /\ own (hw_frame e) = None /\ ~ In (hw_frame e) (orc s)) ->
    F.fres (go_vmm_pageFaultHandler (mk_go_vmm_world tr0 s) regs
              T.o_flush F.o_memcopy T.o_maptemp M.o_alloc F.o_nonrec (F.o_cr2 addr) T.o_unmap) =
    match page_fault addr s with
    | Stray => GPanic
    | Ok (s', out) =>
        GOk (s', if out =? 0 then None
                 else Some [GNum addr; GNum regs; err_arg (T.err_of (out - PANIC))])
    end.
Proof. exact StableInvFault.fault_handler_is_translation_inv. Qed.
Print Assumptions C06_fault_handler_is_translation_inv.
