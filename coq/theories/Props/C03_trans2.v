(** C03 / C01 - tie of the bitmap frame allocator to the source BY TRANSLATION, second part (see Props/C03_trans.v for
    the first): two more functions of kernel/mm/pmm/bitmap_allocator.go.
    Gen/Trans_pmm_bitmap.v is regenerated on every run by gen/gotrans (gen/gotrans/pmm_bitmap.json).

    - markFrame(poolIndex, frame, markFree): no caller in the kernel passes markFree (FreeFrame clears the bit inline),
      so Pmm/Bitmap.v has no such operation; [B2.mark_free] (Pmm/BitmapTrans2.v) is its model, the mirror image of
      [mark_reserved], and it is the state change of a successful [bitmap_free].
    - reserveKernelFrames: `for frame := kernelStartFrame; frame <= kernelEndFrame; frame++ { markFrame(poolIndex, frame,
      markReserved) }` with poolIndex = poolForFrame(kernelStartFrame).  The two fields of the package-level
      bootMemAllocator that it reads are parameters [ke ks] of the translation (config "extvars"; note the order).  The
      model [reserve_kernel] (Pmm/Bitmap.v, used by pmm_init and the C01/C03 init theorems) runs the loop only up to the
      end of the pool and keeps a panic as a sticky outcome; Go runs it to kernelEndFrame (the calls beyond the pool's
      end return at once) and stops at a panic: equal results.  Precondition kernelEndFrame < 2^64-1: at 2^64-1 the Go
      loop condition is always true; the model answers [Hang] at once, the translation runs out of fuel or, when a
      markFrame call panics first, panics - the only input class on which the two differ, and no kernel image ends at
      frame 2^64-1.  Fuel: above the number of pools and above kernelEndFrame + 1 - kernelStartFrame.
    reserveEarlyAllocatorFrames and init are in Props/C03_trans3.v, the sizing arithmetic of setupPoolBitmaps in
    Props/C03_trans4.v and Props/C03_trans5.v.
    Statements only; proofs are in Pmm/BitmapTrans2.v. *)
From Coq Require Import NArith String List.
From FF Require Import Lib.GoOps Gen.Consts_mm_pmm Gen.Trans_pmm_bitmap Pmm.Bitmap.
From FF Require Pmm.BitmapTrans Pmm.BitmapTrans2.
Module B := FF.Pmm.BitmapTrans.
Module B2 := FF.Pmm.BitmapTrans2.
Import ListNotations.
Local Open Scope N_scope.

(** markFrame(poolIndex, frame, markFree); poolIndex = -1 is the model's [None] *)
Theorem C03_markFrame_free_is_translation :
  forall (mtx : bool) (a : balloc) (tr : list gevent) (pi : option nat) (f : N),
    N.of_nat (length (a_pools a)) < 2 ^ 63 -> (forall i, pi = Some i -> N.of_nat i < 2 ^ 63) ->
    go_pmm_BitmapAllocator_markFrame (B.to_ga mtx a tr)
      (match pi with Some i => N.of_nat i | None => 2 ^ 64 - 1 end) f true =
    match B2.mark_free a pi f with
    | Ok a' => GOk (B.to_ga mtx a' tr, tt)
    | Panic => GPanic
    | Hang => GFuel
    end.
Proof. exact B2.markFrame_free_is_translation. Qed.
Print Assumptions C03_markFrame_free_is_translation.

(** [mark_free] is what a successful FreeFrame does *)
Theorem C03_mark_free_is_bitmap_free :
  forall (a : balloc) (f : N) (i : nat) (a' : balloc),
    pool_for_frame a f = Some i -> bitmap_free a f = (a', FreeOk) -> B2.mark_free a (Some i) f = Ok a'.
Proof. exact B2.mark_free_is_bitmap_free. Qed.
Print Assumptions C03_mark_free_is_bitmap_free.

(** reserveKernelFrames; [ks ke] = bootMemAllocator.kernelStartFrame / kernelEndFrame *)
Theorem C03_reserveKernelFrames_is_translation :
  forall (mtx : bool) (a : balloc) (tr : list gevent) (ks ke : N) (fuel : nat),
    N.of_nat (length (a_pools a)) < 2 ^ 63 -> (length (a_pools a) < fuel)%nat ->
    ke < 2 ^ 64 - 1 -> (N.to_nat (ke + 1 - ks) < fuel)%nat ->
    go_pmm_BitmapAllocator_reserveKernelFrames fuel (B.to_ga mtx a tr) ke ks =
    match reserve_kernel a ks ke with
    | Ok a' => GOk (B.to_ga mtx a' tr, tt)
    | Panic => GPanic
    | Hang => GFuel
    end.
Proof. exact B2.reserveKernelFrames_is_translation. Qed.
Print Assumptions C03_reserveKernelFrames_is_translation.
