(** Non-vacuity of the translation tie of tty.VT (second part of Props/C17_trans.v): the hypotheses of the
    theorems ([vt_pre], tabWidth a uint8, "attached or inactive", the viewport below 2^32 - 1, the
    fuel bounds) are met by the states the kernel reaches - NewVT(DefaultTabWidth, DefaultScrollback)
    attached to an 80x25 console, and that terminal after a history that scrolls its buffer - and
    concrete runs of the TRANSLATION of every method on a small console agree with the model
    (with a fuel of 100: no fuel exhaustion, no panic; and a panic where Go panics). *)
From Coq Require Import NArith String List Bool Lia.
From FF Require Import Lib.Word Lib.GoOps Gen.Consts_device_tty Tty.Vt Props.C17_trans.
From FF Require Gen.Trans_tty_vt_full Tty.VtFullTrans Lib.GoOpsExt Tty.ListFacts Tty.VtSpec Tty.VtProofs Props.C17.
Import ListNotations.
Local Open Scope N_scope.

(** ---- the kernel's terminal: 80x25, default scrollback and tab width ---- *)
Definition kernel_vt : outcome vt := attach (new_vt tty_DefaultTabWidth tty_DefaultScrollback) 80 25 7 0.

(** Every history of well-formed calls on the kernel's terminal succeeds and keeps the invariant of C17
    ([C17_vt_in_bounds]); the viewport position is that of the reference terminal ([C17_vt_refines]),
    whose lines need not be evaluated to read it. *)
Lemma kernel_history (ops : list op) :
  Forall VtSpec.op_wf ops ->
  exists v0 v, kernel_vt = Ok v0 /\ run_ops v0 ops = Ok v /\
    VtProofs.InvVT 80 25 tty_DefaultScrollback tty_DefaultTabWidth 7 0 v /\
    vy v = VtSpec.r_view (VtSpec.ref_run 80 25 tty_DefaultScrollback tty_DefaultTabWidth 7 0 ops).
Proof.
  intros WF.
  assert (G : 1 <= 80 /\ 1 <= 25 /\ tty_DefaultTabWidth <= 255 /\ 80 * (25 + tty_DefaultScrollback) * 3 < two32)
    by (unfold two32, tty_DefaultTabWidth, tty_DefaultScrollback; lia).
  destruct G as (Hw & Hh & Ht & Hsz).
  destruct (C17.C17_vt_in_bounds _ _ _ _ 7 0 ops Hw Hh Ht Hsz WF) as (v0 & v & E0 & E & I & _).
  destruct (C17.C17_vt_refines _ _ _ _ 7 0 ops Hw Hh Ht Hsz WF) as (v0' & v' & E0' & E' & A).
  rewrite E0 in E0'. injection E0' as <-. rewrite E in E'. injection E' as <-.
  exists v0, v. split; [exact E0|]. split; [exact E|]. split; [exact I|].
  rewrite <- A. reflexivity.
Qed.

(** the invariant at that geometry gives the preconditions of the translation theorems *)
Lemma kernel_inv_pre v :
  VtProofs.InvVT 80 25 tty_DefaultScrollback tty_DefaultTabWidth 7 0 v ->
  T.vt_pre v /\ tabw v < 256 /\ attached v = true /\ vw v = 80 /\ vh v = 25 /\ T.vt_fuel v = 2 ^ 32 * 240 + 256.
Proof.
  intros ((A & W & H & _ & _ & Tb & _) & (L & _ & V & _) & _).
  unfold T.vt_pre, T.vt_fuel, T.stride_of. rewrite W, Tb, ListFacts.lenN_length, L.
  unfold VtProofs.size, tty_DefaultScrollback, tty_DefaultTabWidth, two32, GoOpsExt.two63 in *.
  repeat split; try assumption; try reflexivity; lia.
Qed.

Example C17_trans_pre_kernel_nonvacuous :
  exists v0, kernel_vt = Ok v0 /\ T.vt_pre v0 /\ tabw v0 < 256 /\ attached v0 = true /\
             vw v0 = 80 /\ vh v0 = 25 /\ T.vt_fuel v0 = 2 ^ 32 * 240 + 256.
Proof.
  destruct (kernel_history [] (Forall_nil _)) as (v0 & v & E0 & E & I & _). injection E as <-.
  exists v0. split; [exact E0|]. exact (kernel_inv_pre _ I).
Qed.

(** the theorems for Write and SetState instantiated at that state: every hypothesis is discharged *)
Example C17_trans_write_kernel (bs : list N) (fuel : nat) :
  (N.to_nat (2 ^ 32 * 240 + 256) < fuel)%nat -> (length bs < fuel)%nat ->
  exists v0, kernel_vt = Ok v0 /\
    F.go_tty_VT_Write fuel (T.to_gof v0) bs =
    match write v0 bs 0 with
    | Ok (v', n, e) => GOk (T.to_gof v', (n, if e =? 0 then None else Some "io.ErrClosedPipe"%string))
    | PanicOOB => GPanic
    end.
Proof.
  intros Hf Hl. destruct C17_trans_pre_kernel_nonvacuous as (v0 & E & P & Tb & _ & _ & _ & Fu).
  exists v0. split; [exact E|]. apply C17_vt_write_is_translation; try assumption. rewrite Fu. exact Hf.
Qed.

Example C17_trans_setState_kernel (s : N) (fuel : nat) :
  (82 < fuel)%nat ->
  exists v0, kernel_vt = Ok v0 /\
    F.go_tty_VT_SetState fuel (T.to_gof v0) s =
    match set_state v0 s with Ok v' => GOk (T.to_gof v', tt) | PanicOOB => GPanic end.
Proof.
  intros Hf. destruct C17_trans_pre_kernel_nonvacuous as (v0 & E & _ & _ & _ & W1 & W2 & _).
  exists v0. split; [exact E|].
  apply C17_vt_setState_is_translation; rewrite ?W1, ?W2; unfold two32; lia.
Qed.

(** ... and after a history that scrolls the buffer: activation, 108 line feeds (the terminal holds
    25 + 80 lines: the last four scroll the buffer), some text with a tab and a backspace.  The preconditions still hold (computed on the
    model's state, and also by [C17_vt_trans_pre_kept]). *)
Definition scroll_history : list op :=
  [OSetState 1; OWrite (repeat 10 108); OWrite [97; 9; 98; 8; 13; 99]].

Example C17_trans_pre_after_scroll_nonvacuous :
  match kernel_vt with
  | Ok v0 =>
      match run_ops v0 scroll_history with
      | Ok v => T.vt_pre v /\ tabw v < 256 /\ (attached v = true \/ active v = false) /\ vy v = 80 /\
                T.vt_fuel v = 2 ^ 32 * 240 + 256
      | PanicOOB => False
      end
  | PanicOOB => False
  end.
Proof.
  assert (WF : Forall VtSpec.op_wf scroll_history).
  { apply Forall_cons; [cbn; lia|]. apply Forall_cons; [|repeat constructor; lia].
    apply Forall_forall. intros b Hb. apply repeat_spec in Hb. subst b. lia. }
  destruct (kernel_history _ WF) as (v0 & v & -> & -> & I & V).
  destruct (kernel_inv_pre v I) as (P & Tb & A & _ & _ & Fu).
  split; [exact P|]. split; [exact Tb|]. split; [left; exact A|]. split; [|exact Fu].
  rewrite V. reflexivity.
Qed.

(** ---- concrete runs of the translation: 3x2 console, one line of scrollback, tab width 2 ---- *)
Definition small0 : outcome vt := attach (new_vt 2 1) 3 2 7 0.
(** active, "ab\n\n" written: the viewport has moved into the scrollback; the next line feed scrolls the buffer *)
Definition small_hist : list op := [OSetState 1; OWrite [97; 98; 10; 10]].

Definition on_small {A} (f : vt -> A) (d : A) : A :=
  match small0 with
  | Ok v0 => match run_ops v0 small_hist with Ok v => f (set_trace v []) | PanicOOB => d end
  | PanicOOB => d
  end.

Definition same_unit (r : gres (F.go_tty_VT * unit)) (o : outcome vt) : Prop :=
  match o with Ok v' => r = GOk (T.to_gof v', tt) | PanicOOB => False end.

Example C17_trans_run_loopfree :
  on_small (fun v =>
    F.go_tty_VT_State (T.to_gof v) = GOk (T.to_gof v, 1) /\
    F.go_tty_VT_CursorPosition (T.to_gof v) = GOk (T.to_gof v, (1, 2)) /\
    F.go_tty_VT_updateDataOffset (T.to_gof v) = GOk (T.to_gof (update_data_offset v), tt) /\
    F.go_tty_VT_cr (T.to_gof v) = GOk (T.to_gof (cr v), tt) /\
    F.go_tty_VT_SetCursorPosition (T.to_gof v) 9 0 = GOk (T.to_gof (set_cursor_position v 9 0), tt)) False.
Proof. vm_compute. repeat split; reflexivity. Qed.

(** lf at the bottom of the buffer: both scroll loops run, the console is told to scroll and to clear the line *)
Example C17_trans_run_lf :
  on_small (fun v => same_unit (F.go_tty_VT_lf 100 (T.to_gof v) true) (lf v true) /\
                     match lf v true with Ok v' => length (trace v') = 2%nat /\ vy v' = 1 | PanicOOB => False end) False.
Proof. vm_compute. repeat split; reflexivity. Qed.

Example C17_trans_run_doWrite :
  on_small (fun v => same_unit (F.go_tty_VT_doWrite 100 (T.to_gof v) 120 true) (do_write v 120 true) /\
                     same_unit (F.go_tty_VT_doWrite 100 (T.to_gof v) 120 false) (do_write v 120 false)) False.
Proof. vm_compute. split; reflexivity. Qed.

(** WriteByte: carriage return, line feed, backspace, tab (two blanks), an ordinary byte; and on a detached terminal *)
Example C17_trans_run_writeByte :
  on_small (fun v => forall b, In b [13; 10; 8; 9; 65] ->
     match write_byte v b with
     | Ok (v', e) => F.go_tty_VT_WriteByte 100 (T.to_gof v) b = GOk (T.to_gof v', None) /\ e = 0
     | PanicOOB => False
     end) False /\
  F.go_tty_VT_WriteByte 100 (T.to_gof (new_vt 4 0)) 65 = GOk (T.to_gof (new_vt 4 0), Some "io.ErrClosedPipe"%string).
Proof.
  split; [|vm_compute; reflexivity].
  vm_compute. intros b [<-|[<-|[<-|[<-|[<-|[]]]]]]; split; reflexivity.
Qed.

(** Write: seven bytes wrapping over three lines, scrolling twice: (7, nil) *)
Example C17_trans_run_write :
  on_small (fun v =>
     match write v [120; 121; 122; 119; 9; 10; 113] 0 with
     | Ok (v', n, e) => F.go_tty_VT_Write 100 (T.to_gof v) [120; 121; 122; 119; 9; 10; 113] = GOk (T.to_gof v', (7, None)) /\
                        n = 7 /\ e = 0
     | PanicOOB => False
     end) False.
Proof. vm_compute. repeat split; reflexivity. Qed.

(** SetState: deactivation is silent, re-activation redraws the 3x2 viewport (six console writes) *)
Example C17_trans_run_setState :
  on_small (fun v =>
     match set_state v 0 with
     | Ok v1 => F.go_tty_VT_SetState 100 (T.to_gof v) 0 = GOk (T.to_gof v1, tt) /\ trace v1 = [] /\
                match set_state v1 1 with
                | Ok v2 => F.go_tty_VT_SetState 100 (T.to_gof v1) 1 = GOk (T.to_gof v2, tt) /\ length (trace v2) = 6%nat
                | PanicOOB => False
                end
     | PanicOOB => False
     end) False.
Proof. vm_compute. repeat split; reflexivity. Qed.

(** AttachTo: NewVT(2, 1) on a 3x2 console: 27 bytes of blank cells; with one unit of fuel too few for the
    fill loop (9 cells and the final test) the translation reports GFuel, not a panic *)
Example C17_trans_run_attachTo :
  same_unit (F.go_tty_VT_AttachTo 10 (T.to_gof (new_vt 2 1)) true 7 0 3 2) small0 /\
  F.go_tty_VT_AttachTo 9 (T.to_gof (new_vt 2 1)) true 7 0 3 2 = GFuel /\
  F.go_tty_VT_AttachTo 0 (T.to_gof (new_vt 2 1)) false 7 0 3 2 = GOk (T.to_gof (new_vt 2 1), tt).
Proof. vm_compute. repeat split; reflexivity. Qed.

(** a Go panic is reported as GPanic: a write at a data offset beyond the buffer (SetCursorPosition cannot
    produce it; the record is built by hand), and a console call through a nil console on an active terminal *)
Example C17_trans_run_panic :
  on_small (fun v => F.go_tty_VT_doWrite 100 (T.to_gof (set_doff v 27)) 65 false = GPanic /\
                     do_write (set_doff v 27) 65 false = PanicOOB) False /\
  F.go_tty_VT_doWrite 100 (T.to_gof (set_st (new_vt 4 0) 1)) 65 false = GPanic.
Proof. split; vm_compute; [split|]; reflexivity. Qed.
