(** Non-vacuity and concrete runs for Props/C13_trans.v.  The theorems there have no hypotheses beyond the types, so
    "non-vacuous" means: the regenerated translation really runs.  Below the translated functions of
    Gen/Trans_aml_tree.v are run by [vm_compute] on the history of Props/C13_examples.v (the ACPI specification's
    search-rule tree: built, edited, an object freed and its slot reused) and agree with the model step by step;
    three runs end in GPanic where Go panics (free of an object that still has arguments, append through a pointer
    beyond the pool, append through nil), and ObjectAt answers nil for a freed slot and beyond the pool. *)
From Coq Require Import NArith List Bool.
From FF Require Import Lib.GoOps Lib.GoPool Gen.Consts_aml_tree Gen.Trans_aml_tree Aml.Stream Aml.Tree Aml.TreeTrans
                       Props.C13_trans Props.C13_trans_find.
Import ListNotations.
Local Open Scope N_scope.

Definition nm4 (a b c d : N) : Name := (a, b, c, d).
(* slots: 0 = \ ; 1 = _SB_ ; 2 = PCI0 ; 3 = IDE0 ; 4 = _ADR ; 5 = _CRS *)
Definition ex_ops : list op :=
  [ OpNewNamed opScopeBlock 0 (nm4 0x5c 0 0 0);
    OpNewNamed opScopeBlock 0 (nm4 0x5f 0x53 0x42 0x5f);
    OpNewNamed opScopeBlock 0 (nm4 0x50 0x43 0x49 0x30);
    OpNewNamed opScopeBlock 0 (nm4 0x49 0x44 0x45 0x30);
    OpNewNamed opScopeBlock 0 (nm4 0x5f 0x41 0x44 0x52);
    OpNewNamed opScopeBlock 0 (nm4 0x5f 0x43 0x52 0x53);
    OpAppend 3 4; OpAppend 0 1; OpAppend 1 2; OpAppend 2 3;
    OpNew 0x10 7;              (* slot 6 *)
    OpAppend 2 6;
    OpAppendAfter 2 5 3;       (* PCI0: IDE0, _CRS, (6) *)
    OpDetach 2 6; OpFree 6;
    OpNewNamed opScopeBlock 0 (nm4 0x5f 0x48 0x49 0x44)   (* reuses slot 6 *) ].

Notation GTree := (@go_aml_ObjectTree N).

Definition drop {A} (r : gres (GTree * A)) : gres GTree :=
  match r with GOk (g, _) => GOk g | GPanic => GPanic | GFuel => GFuel end.

(** one step of a history, run by the TRANSLATION *)
Definition go_step (g : GTree) (o : op) : gres GTree :=
  match o with
  | OpNew opc th => drop (go_aml_ObjectTree_newObject g opc th table_oracle)
  | OpNewNamed opc th nm => drop (go_aml_ObjectTree_newNamedObject g opc th (name_bytes nm) table_oracle)
  | OpAppend a b => drop (go_aml_ObjectTree_append g (Some a) (Some b))
  | OpAppendAfter a b c => drop (go_aml_ObjectTree_appendAfter g (Some a) (Some b) (Some c))
  | OpDetach a b => drop (go_aml_ObjectTree_detach g (Some a) (Some b))
  | OpFree a => drop (go_aml_ObjectTree_free g (Some a))
  end.

Fixpoint go_run (g : GTree) (ops : list op) : gres GTree :=
  match ops with
  | [] => GOk g
  | o :: rest => match go_step g o with GOk g' => go_run g' rest | GPanic => GPanic | GFuel => GFuel end
  end.

Definition ex_tree : ObjectTree N :=
  match run NewObjectTree ex_ops with Ok t => t | _ => NewObjectTree end.

(** the model runs the history to the end *)
Example C13_trans_model_history_ok : run (V := N) NewObjectTree ex_ops = Ok ex_tree.
Proof. vm_compute. reflexivity. Qed.

(** ... and the translation, run on the translated empty tree, ends in exactly the translated model tree *)
Example C13_trans_run_history :
  go_run (tr_tree (V := N) NewObjectTree) ex_ops = GOk (tr_tree ex_tree).
Proof. vm_compute. reflexivity. Qed.

(** the slot freed by [OpFree 6] was reused (the pool has 7 entries, the free list is empty again) *)
Example C13_trans_run_reuse :
  match go_run (tr_tree (V := N) NewObjectTree) ex_ops with
  | GOk g => length (f_ObjectTree_objPool g) = 7%nat /\ f_ObjectTree_freeListHeadIndex g = tree_InvalidIndex /\
             option_map f_Object_name (nth_error (f_ObjectTree_objPool g) 6) = Some [0x5f; 0x48; 0x49; 0x44]
  | _ => False
  end.
Proof. vm_compute. repeat split. Qed.

(** the theorems instantiated at the example tree *)
Example C13_trans_append_at_example :
  go_aml_ObjectTree_append (tr_tree ex_tree) (Some 1) (Some 6) =
  lift (fun t' => (tr_tree t', tt)) (append ex_tree 1 6).
Proof. exact (C13_append_is_translation N ex_tree 1 6). Qed.

Example C13_trans_newObject_at_example :
  go_aml_ObjectTree_newObject (tr_tree ex_tree) 0x10 3 table_oracle =
  lift (fun '(t', p) => (tr_tree t', Some p)) (newObject ex_tree 0x10 3).
Proof. exact (C13_newObject_is_translation N ex_tree 0x10 3). Qed.

(** panics: free(PCI0) while it still has arguments is the explicit panic of free; a pointer beyond the pool and the
    nil pointer are dereferenced by append *)
Example C13_trans_run_free_with_args_panics :
  go_aml_ObjectTree_free (tr_tree ex_tree) (Some 2) = GPanic /\ free ex_tree 2 = Panic.
Proof. split; vm_compute; reflexivity. Qed.

Example C13_trans_run_append_beyond_pool_panics :
  go_aml_ObjectTree_append (tr_tree ex_tree) (Some 2) (Some 7) = GPanic /\ append ex_tree 2 7 = Panic.
Proof. split; vm_compute; reflexivity. Qed.

Example C13_trans_run_append_nil_panics :
  go_aml_ObjectTree_append (tr_tree ex_tree) None (Some 2) = GPanic /\
  go_aml_ObjectTree_append (tr_tree ex_tree) (Some 2) None = GPanic.
Proof. split; vm_compute; reflexivity. Qed.

(** ObjectAt: a live slot, beyond the pool, and a freed slot (after free(_CRS)) *)
Example C13_trans_run_ObjectAt :
  go_aml_ObjectTree_ObjectAt (tr_tree ex_tree) 5 = GOk (tr_tree ex_tree, Some 5) /\
  go_aml_ObjectTree_ObjectAt (tr_tree ex_tree) 7 = GOk (tr_tree ex_tree, None) /\
  match go_aml_ObjectTree_free (tr_tree ex_tree) (Some 5) with
  | GOk (g, _) => match go_aml_ObjectTree_ObjectAt g 5 with GOk (_, r) => r = None | _ => False end /\
                  f_ObjectTree_freeListHeadIndex g = 5
  | _ => False
  end.
Proof. vm_compute. repeat split. Qed.

(** NumArgs / ArgAt / ClosestNamedAncestor are translated too (their loops run on fuel); on the example tree the
    translation returns what the model returns: PCI0 has two arguments, the second is _CRS (slot 5), and the closest
    named ancestor of _ADR (slot 4) is IDE0 (slot 3) *)
Example C13_trans_run_queries :
  (match go_aml_ObjectTree_NumArgs 8 (tr_tree ex_tree) (Some 2) with GOk (_, n) => Ok n | GPanic => Panic | GFuel => OutOfFuel end)
    = NumArgs ex_tree (Some 2) /\
  NumArgs ex_tree (Some 2) = Ok 2 /\
  (match go_aml_ObjectTree_ArgAt 8 (tr_tree ex_tree) (Some 2) 1 with GOk (_, p) => Ok p | GPanic => Panic | GFuel => OutOfFuel end)
    = ArgAt ex_tree (Some 2) 1 /\
  ArgAt ex_tree (Some 2) 1 = Ok (Some 5) /\
  (match go_aml_ObjectTree_ClosestNamedAncestor 8 (tr_tree ex_tree) (Some 4) with GOk (_, i) => Ok i | GPanic => Panic | GFuel => OutOfFuel end)
    = ClosestNamedAncestor ex_tree (Some 4) /\
  ClosestNamedAncestor ex_tree (Some 4) = Ok 3.
Proof. vm_compute. repeat split. Qed.

(** Find / findRelative (nested labelled loops over the []byte expression; equality theorems in Props/C13_trans_find.v,
    instantiated at the end of this file).  On the example tree
    ( \ -> _SB_ -> PCI0 -> [IDE0 -> [_ADR], _CRS] ) the translation returns exactly what the model's Find returns (by those
    theorems, once their hypotheses are checked for every lookup) for absolute, ^-prefixed, single-segment (search upwards), multi-segment, dual / multi name
    prefix, too short, empty and stray-byte expressions, and panics where the model panics (a scope beyond the pool). *)
Definition ex_lookups : list (N * list N) :=
  [ (0, [0x5c; 0x5f;0x53;0x42;0x5f; 0x50;0x43;0x49;0x30; 0x49;0x44;0x45;0x30; 0x5f;0x41;0x44;0x52]);   (* \_SB_PCI0IDE0_ADR *)
    (3, [0x5e; 0x5f;0x43;0x52;0x53]);                     (* ^_CRS from IDE0 *)
    (3, [0x5e; 0x5e; 0x5e]); (3, [0x5e; 0x5e; 0x5e; 0x5e]);
    (4, [0x5f;0x43;0x52;0x53]);                           (* _CRS from _ADR: found two scopes up *)
    (4, [0x4e;0x4f;0x4e;0x45]);                           (* NONE *)
    (1, [0x2f; 0x02; 0x50;0x43;0x49;0x30; 0x49;0x44;0x45;0x30]);   (* multi-name prefix *)
    (1, [0x2e; 0x50;0x43;0x49;0x30; 0x5f;0x43;0x52;0x53]);         (* dual-name prefix *)
    (1, [0x50;0x43;0x49;0x30; 0x5f;0x43;0x52;0x53; 0x41]);         (* one stray byte behind the path *)
    (2, [0x5f;0x53;0x42]); (2, []); (2, [0x5c]); (2, [0x2f]); (2, [0x5c; 0x2f; 0x03; 0x3f]);
    (5, [0x49;0x44;0x45;0x30; 0x5f;0x41;0x44;0x52]);               (* IDE0._ADR from _CRS: multi-segment, downward only *)
    (7, [0x5f;0x43;0x52;0x53]);                                     (* a scope beyond the pool: nil dereference *)
    (0xffffffff, [0x5f;0x43;0x52;0x53]) ].

(** the hypotheses of C13_find_is_translation / C13_findRelative_is_translation hold for every lookup of the list above on
    the example tree with fuel 64 (pool of 7 objects: chain_fuel = 8), and the theorems give the runs below *)
Example C13_trans_find_hypotheses_nonvacuous :
  Forall (fun '(s, e) => N.of_nat (length e) < 2 ^ 62 /\ (length e + 5 < 64)%nat /\ (chain_fuel ex_tree <= 64)%nat /\
                         Find ex_tree s e <> OutOfFuel /\ findRelative ex_tree s e <> OutOfFuel) ex_lookups.
Proof.
  assert (C : (chain_fuel ex_tree <= 64)%nat) by (apply PeanoNat.Nat.leb_le; vm_compute; reflexivity).
  repeat (apply Forall_cons;
          [split; [reflexivity|]; split; [apply PeanoNat.Nat.ltb_lt; reflexivity|]; split; [exact C|];
           split; vm_compute; discriminate|]).
  apply Forall_nil.
Qed.

Example C13_trans_run_Find_agrees :
  map (fun '(s, e) => match go_aml_ObjectTree_Find 64 (tr_tree ex_tree) s e with
                      | GOk (_, r) => Ok r | GPanic => Panic | GFuel => OutOfFuel end) ex_lookups =
  map (fun '(s, e) => Find ex_tree s e) ex_lookups.
Proof.
  apply map_ext_Forall. eapply Forall_impl; [|exact C13_trans_find_hypotheses_nonvacuous].
  intros (s, e) (H1 & H2 & H3 & H4 & _). rewrite (C13_find_is_translation N ex_tree s e 64 H1 H2 H3 H4).
  destruct (Find ex_tree s e); reflexivity.
Qed.

Example C13_trans_run_Find_values :
  map (fun '(s, e) => Find ex_tree s e) ex_lookups =
  [Ok 4; Ok 5; Ok 0; Ok 0xffffffff; Ok 5; Ok 0xffffffff; Ok 3; Ok 5; Ok 0xffffffff;
   Ok 0xffffffff; Ok 0xffffffff; Ok 0; Ok 0xffffffff; Ok 0xffffffff; Ok 0xffffffff; Panic; Ok 0xffffffff].
Proof. vm_compute. reflexivity. Qed.

Example C13_trans_run_findRelative_agrees :
  map (fun '(s, e) => match go_aml_ObjectTree_findRelative 64 (tr_tree ex_tree) s e with
                      | GOk (_, r) => Ok r | GPanic => Panic | GFuel => OutOfFuel end) ex_lookups =
  map (fun '(s, e) => findRelative ex_tree s e) ex_lookups.
Proof.
  apply map_ext_Forall. eapply Forall_impl; [|exact C13_trans_find_hypotheses_nonvacuous].
  intros (s, e) (H1 & H2 & H3 & _ & H5). rewrite (C13_findRelative_is_translation N ex_tree s e 64 H1 H2 H3 H5).
  destruct (findRelative ex_tree s e); reflexivity.
Qed.

Example C13_trans_find_at_example :
  go_aml_ObjectTree_Find 64 (tr_tree ex_tree) 4 [0x5f;0x43;0x52;0x53] = GOk (tr_tree ex_tree, 5).
Proof.
  rewrite (C13_find_is_translation N ex_tree 4 [0x5f;0x43;0x52;0x53] 64);
    [ reflexivity | reflexivity | vm_compute; repeat constructor | vm_compute; repeat constructor | vm_compute; discriminate ].
Qed.

Example C13_trans_findRelative_at_example :
  go_aml_ObjectTree_findRelative 64 (tr_tree ex_tree) 1 [0x2f; 0x02; 0x50;0x43;0x49;0x30; 0x49;0x44;0x45;0x30] = GOk (tr_tree ex_tree, 3).
Proof.
  rewrite (C13_findRelative_is_translation N ex_tree 1 [0x2f; 0x02; 0x50;0x43;0x49;0x30; 0x49;0x44;0x45;0x30] 64);
    [ reflexivity | reflexivity | vm_compute; repeat constructor | vm_compute; repeat constructor | vm_compute; discriminate ].
Qed.

(** CreateDefaultScopes run by the translation on the empty tree: six scopes, the root holds the other five in order *)
Example C13_trans_run_CreateDefaultScopes :
  match go_aml_ObjectTree_CreateDefaultScopes (tr_tree (V := N) NewObjectTree) 3 table_oracle with
  | GOk (g, _) =>
      map f_Object_name (f_ObjectTree_objPool g) =
        [[92; 0; 0; 0]; [95; 71; 80; 69]; [95; 80; 82; 95]; [95; 83; 66; 95]; [95; 83; 73; 95]; [95; 84; 90; 95]] /\
      map f_Object_parentIndex (f_ObjectTree_objPool g) = [0xffffffff; 0; 0; 0; 0; 0] /\
      map f_Object_nextSiblingIndex (f_ObjectTree_objPool g) = [0xffffffff; 2; 3; 4; 5; 0xffffffff] /\
      option_map f_Object_firstArgIndex (nth_error (f_ObjectTree_objPool g) 0) = Some 1 /\
      option_map f_Object_lastArgIndex (nth_error (f_ObjectTree_objPool g) 0) = Some 5 /\
      GOk (g, tt) = lift (fun t' => (tr_tree t', tt)) (CreateDefaultScopes (V := N) NewObjectTree 3)
  | _ => False
  end.
Proof. vm_compute. repeat split. Qed.
