(** C03 / C01 - tie of the bitmap frame allocator to the source BY TRANSLATION, fifth part: the translated fragments of
    BitmapAllocator.setupPoolBitmaps (Props/C03_trans4.v) connected in the order the function runs them,

        pass 1 over all regions -> requiredBytes / requiredPages -> [reserve + map + memset loop] -> bitmapStartAddr -> pass 2 over all regions,

    produce exactly the model's set-up step of [pmm_init] (Pmm/Bitmap.v): [pass1] (pool count, totalPages, bitmap bytes),
    [required_bytes], the pools [pass2 m] and the end of the laid-out area [layout_bytes] - for EVERY memory map (no
    well-formedness needed), every allocator record and every address of the reserved block; in particular pass 2 fills
    exactly the poolsHdr.Len pools that pass 1 counted, so the index alloc.pools[poolIndex] is never out of range.

    [B5.go_setup_sizes] (Pmm/BitmapTrans5.v) is the connection: hand-written Gallina around the four regenerated
    fragments.  It is what REMAINS ASSUMED about the Go function beyond the fragments themselves:
      - each closure runs once per memory-map entry, in order, and the visit is never stopped: the contract of
        multiboot.VisitMemRegions (property C10, C10_visitMemRegions_is_translation in Props/C10_C02_trans.v);
      - the unsafe overlays: alloc.pools becomes poolsHdr.Len zero-valued pools (the area was zeroed by kernel.Memset),
        alloc.pools[poolIndex].f is the field of the pool at the index poolIndex has on entry to the closure, a pool's
        freeBitmap becomes freeBitmapHdr.Len zero words;
      - the var block: pageSizeMinus1 = mm.PageSize - 1, sizeofPool = unsafe.Sizeof(framePool{}) (constants dump);
      - the loop between "required" and "layout" (reserveRegionFn, earlyAllocFrame, mapFn, kernel.Memset) is NOT translated:
        [data] stands for the address it reserved; its model is [map_pages] (tied by the correspondence run and the monitor
        c03:state-outside-reserved-block only).
    Side conditions: C03_setupPoolBitmaps_is_model needs the number of entries < 2^64 (pool counter does not
    wrap); C03_init_with_model_setup ASSUMES through its oracle hypothesis that setupPoolBitmaps answers with the model's
    set-up (it is not derived from the Go function) and covers only the path on which the model's set-up succeeds
    (reserve limit not exceeded, map_pages = MGo, layout fits), plus the size / fuel conditions of C03_init_is_translation.
    Statements only; proofs are in Pmm/BitmapTrans5.v. *)
From Coq Require Import NArith String List.
From FF Require Import Lib.Word Lib.GoOps Lib.GoVisit Gen.Consts_mm_pmm Gen.Trans_pmm_bitmap Pmm.Boot Pmm.Bitmap.
From FF Require Pmm.BitmapTrans Pmm.BitmapTrans3 Pmm.BitmapTrans5.
Module B := FF.Pmm.BitmapTrans.
Module B3 := FF.Pmm.BitmapTrans3.
Module B5 := FF.Pmm.BitmapTrans5.
Import ListNotations.
Local Open Scope N_scope.

Theorem C03_setupPoolBitmaps_is_model :
  forall (mtx : bool) (a : balloc) (tr : list gevent) (m : memmap) (data : N),
    N.of_nat (length m) < 2 ^ 64 ->
    B5.go_setup_sizes (B.to_ga mtx a tr) (map B3.to_gr m) data =
    let '(np, total, req) := pass1 m (a_total a) in
    GOk (B.to_ga mtx (mkBA total (a_reserved a) (a_pools a)) tr, np,
         required_bytes np req, N.shiftr (required_bytes np req) PageShift,
         pass2 m, w64 (data + layout_bytes m np)).
Proof. exact B5.setup_sizes_is_model. Qed.
Print Assumptions C03_setupPoolBitmaps_is_model.

(** pass 1 counts exactly the pools pass 2 creates: the model's "pool index out of range" outcome of the set-up
    ([InitPanic] when length pools <> npools) cannot occur when both passes see the same map *)
Theorem C03_setupPoolBitmaps_pool_count :
  forall (m : memmap) (total0 : N), fst (fst (pass1 m total0)) = N.of_nat (length (pass2 m)).
Proof. exact B5.pass1_npools. Qed.
Print Assumptions C03_setupPoolBitmaps_pool_count.

(** The oracle of C03_init_is_translation instantiated with the model's set-up: when setupPoolBitmaps answers with the
    pools and totalPages of C03_setupPoolBitmaps_is_model (on a fresh allocator) and leaves the boot allocator in the state
    [b] the model's mapping loop [map_pages] ends in, the translated BitmapAllocator.init returns what the model's
    [pmm_init] returns - the function C01_early_frames_good, C01_pools_are_available_ram, C03_init_total and C03_init_stats
    are about.  [limit], [mapfail]: the model's parameters for the reserveRegionFn / mapFn seams (no failure on this path). *)
Theorem C03_init_with_model_setup :
  forall (ga : go_pmm_BitmapAllocator) (gb : go_pmm_BootMemAllocator)
         (o : go_pmm_BitmapAllocator -> go_pmm_BootMemAllocator -> go_pmm_BitmapAllocator * go_pmm_BootMemAllocator * option string)
         (mtx : bool) (tr0 : list gevent) (ka kb : N) (m : memmap) (kstart kend limit mapfail : N)
         (b : bstate) (calls : list mapcall) (fuel : nat),
    let ks := kernel_start_frame kstart in
    let ke := kernel_end_frame kend in
    let npools := fst (fst (pass1 m 0)) in
    let total := snd (fst (pass1 m 0)) in
    let bytes := required_bytes npools (snd (pass1 m 0)) in
    (limit <? bytes) = false ->
    map_pages m ks ke (N.shiftr bytes PageShift) mapfail = MGo b calls ->
    (bytes <? layout_bytes m npools) = false ->
    o (set_f_BitmapAllocator_trace ga (GEv "setupPoolBitmaps" [] :: f_BitmapAllocator_trace ga)) gb =
      (B.to_ga mtx (mkBA total 0 (pass2 m)) tr0, B3.to_gb ka kb ks ke b, None) ->
    N.of_nat (length (pass2 m)) < 2 ^ 63 -> (length (pass2 m) < fuel)%nat ->
    ke < 2 ^ 64 - 1 -> (N.to_nat (ke + 1 - ks) < fuel)%nat ->
    b_count b < 2 ^ 64 -> (N.to_nat (b_count b) < fuel)%nat ->
    go_pmm_BitmapAllocator_init fuel ga gb o (map B3.to_gr m) =
    match fst (pmm_init m kstart kend limit mapfail) with
    | InitOk a2 b' => GOk (B.to_ga mtx a2 (GEv "printStats" [] :: tr0), (None, B3.to_gb ka kb ks ke b'))
    | InitPanic => GPanic
    | InitHang => GFuel
    | _ => GPanic
    end.
Proof. exact B5.init_with_model_setup. Qed.
Print Assumptions C03_init_with_model_setup.
