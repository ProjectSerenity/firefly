(** Non-vacuity of C05_setup_kernel_is_translation and concrete runs of the regenerated setupPDTForKernel
    (Gen/Trans_vmm_kernel.v) by [vm_compute] on the boot state of a case (arena of 64 frames from 0x100, active root
    0x100) with a four-entry section table: an executable section of three pages (unaligned start), an empty section
    (never delivered by the visitor), a writable section of one page, and a section below the kernel offset (skipped):
    the complete run, the same run with the allocator failing inside the first section, and a reserved range whose page
    is not mapped in the old space. *)
From Coq Require Import NArith String List Bool Lia.
From FF Require Import Lib.Word Lib.GoOps Gen.Consts_mm_vmm Gen.Trans_vmm_kernel Vmm.Pt Vmm.PtMem.
From FF Require Vmm.KernelTrans Vmm.PdtTrans Vmm.MapTrans.
Module K := FF.Vmm.KernelTrans.
Module T := FF.Vmm.PdtTrans.
Module M := FF.Vmm.MapTrans.
Import ListNotations.
Local Open Scope N_scope.

Definition OFF : N := 0xffff800000000000.
Definition secs : list section :=
  [(0x6, OFF + 0x100800, 0x2800); (0x2, OFF + 0x180000, 0); (0x3, OFF + 0x200000, 0x1000); (0x2, 0x1000, 0x5000)].
Definition full : list N := [0x101; 0x102; 0x103; 0x104; 0x105; 0x106; 0x107; 0x108; 0x109; 0x10a].
Definition boot (last0 : N) (oracle : list N) : st := init_state 0x100 64 last0 oracle.
Definition PG0 : N := 0xffff800000100.   (* the page of OFF + 0x100000 *)
Definition NX_RW_P : N := 0x8000000000000003.

Definition run (s : st) :=
  go_vmm_setupPDTForKernel 8 (mk_go_vmm_world [] s) OFF K.o_kactivate K.o_kinit K.o_kmap M.o_alloc K.o_translate (K.nonempty secs).
Definition obs (r : gres (go_vmm_world * option string)) :=
  match r with GOk (w, e) => Some (e, f_world_trace w, cr3 (f_world_mem w), digest (f_world_mem w)) | _ => None end.
Definition mobs (r : R (st * N)) := match r with Ok (s', e) => Some (e, cr3 s', digest s') | Stray => None end.

(* [K.fuel_ok] decided by evaluation *)
Lemma fuel_ok_b fuel off secs s :
  forallb (fun sec : section => let '(_, addr, size) := sec in Nat.ltb (N.to_nat (K.sec_n addr size)) fuel) (K.mapped off secs)
  && Nat.ltb (N.to_nat (K.resv_n (last s))) fuel = true -> K.fuel_ok fuel off secs s.
Proof.
  intros H. apply andb_prop in H as [H1 H2]. split; [|apply PeanoNat.Nat.ltb_lt, H2].
  apply Forall_forall. intros [[fl addr] size] Hin. apply PeanoNat.Nat.ltb_lt.
  exact (proj1 (forallb_forall _ _) H1 _ Hin).
Qed.

Example C05_setup_kernel_is_translation_nonvacuous :
  OFF < two64 /\ last (boot 0 full) < two64 /\ Forall K.sec_ok secs /\ K.fuel_ok 8 OFF secs (boot 0 full).
Proof.
  split; [reflexivity|]. split; [reflexivity|]. split.
  - repeat constructor; reflexivity.
  - apply fuel_ok_b. vm_compute. reflexivity.
Qed.

(** a table that STARTS WITH the null section of every ELF section table (flags 0, address 0, size 0): the hypotheses hold
    with fuel 8 - the null entry is never visited and needs none (its page count `size - 1` would be 2^52) *)
Definition null_secs : list section := (0, 0, 0) :: secs.
Example C05_null_section_table_nonvacuous :
  OFF < two64 /\ last (boot 0 full) < two64 /\ Forall K.sec_ok null_secs /\ K.fuel_ok 8 OFF null_secs (boot 0 full)
  /\ K.sec_n 0 0 = 2 ^ 52
  /\ (match go_vmm_setupPDTForKernel 8 (mk_go_vmm_world [] (boot 0 full)) OFF K.o_kactivate K.o_kinit K.o_kmap M.o_alloc K.o_translate (K.nonempty null_secs)
      with GOk (w, e) => Some (e, length (f_world_trace w)) | _ => None end) = Some (None, 7%nat).
Proof.
  split; [reflexivity|]. split; [reflexivity|]. split; [repeat constructor; reflexivity|].
  split; [apply fuel_ok_b; vm_compute; reflexivity|].
  split; vm_compute; reflexivity.
Qed.

Example C05_setup_kernel_is_translation_state_nonvacuous :
  K.nonempty secs = [(0x6, OFF + 0x100800, 0x2800); (0x3, OFF + 0x200000, 0x1000); (0x2, 0x1000, 0x5000)].
Proof. reflexivity. Qed.

(** the complete run: root 0x101 allocated and initialised, three pages of the executable section mapped Present only
    (executable, read-only), the writable section Present | RW | NX, the empty and the low section produce no call, the
    new root is active; state and error are the model's *)
Example setup_run :
  obs (run (boot 0 full))
  = Some (None,
          [K.ev_kactivate;
           K.ev_kmap (PG0 + 0x100) 0x200 NX_RW_P;
           K.ev_kmap (PG0 + 2) 0x102 1; K.ev_kmap (PG0 + 1) 0x101 1; K.ev_kmap PG0 0x100 1;
           K.ev_kinit 0x101; K.ev_alloc],
          0x101000, digest (match setup_kernel OFF secs (boot 0 full) with Ok (s', _) => s' | Stray => boot 0 [] end))
  /\ mobs (setup_kernel OFF secs (boot 0 full)) =
     Some (0, 0x101000, digest (match setup_kernel OFF secs (boot 0 full) with Ok (s', _) => s' | Stray => boot 0 [] end)).
Proof.
  (* named, the model's run is evaluated once for its three occurrences *)
  set (r := setup_kernel OFF secs (boot 0 full)). vm_compute. split; reflexivity.
Qed.

(** the allocator fails inside the first section (after the root, the three tables of the temporary mapping and two of
    the three tables the first page needs): the error comes back, nothing more is mapped, nothing is activated *)
Example setup_alloc_failure_run :
  let s := boot 0 [0x101; 0x102; 0x103; 0x104; 0x105; 0x106] in
  obs (run s) = Some (Some "errAllocFrame"%string, [K.ev_kmap PG0 0x100 1; K.ev_kinit 0x101; K.ev_alloc], 0x100000,
                      digest (match setup_kernel OFF secs s with Ok (s', _) => s' | Stray => s end))
  /\ (match setup_kernel OFF secs s with Ok (_, e) => Some e | Stray => None end) = Some E_ALLOC.
Proof. intros s. set (r := setup_kernel OFF secs s). vm_compute. split; reflexivity. Qed.

(** no frame at all: the first call fails *)
Example setup_no_frame_run :
  obs (run (boot 0 [])) = Some (Some "errAllocFrame"%string, [K.ev_alloc], 0x100000, digest (boot 0 [])).
Proof. vm_compute. reflexivity. Qed.

(** one reserved page below the temporary mapping that the old space does not map: translateFn's error comes back
    after the sections have been mapped *)
Example setup_reserved_unmapped_run :
  let s := boot (vmm_tempMappingAddr - 0x1000) full in
  (match run s with GOk (w, e) => Some (e, hd K.ev_alloc (f_world_trace w), cr3 (f_world_mem w)) | _ => None end)
  = Some (Some "ErrInvalidMapping"%string, K.ev_translate (vmm_tempMappingAddr - 0x1000), 0x100000)
  /\ (match setup_kernel OFF secs s with Ok (_, e) => Some e | Stray => None end) = Some E_INVALID
  /\ K.fuel_ok 8 OFF secs s.
Proof.
  split; [vm_compute; reflexivity|]. split; [vm_compute; reflexivity|].
  apply fuel_ok_b. vm_compute. reflexivity.
Qed.

(** too little fuel is reported as GFuel, not as a panic *)
Example setup_fuel_run : run (boot 0 full) <> GFuel /\
  go_vmm_setupPDTForKernel 3 (mk_go_vmm_world [] (boot 0 full)) OFF K.o_kactivate K.o_kinit K.o_kmap M.o_alloc K.o_translate (K.nonempty secs) = GFuel.
Proof. split; [vm_compute; discriminate | vm_compute; reflexivity]. Qed.

(** ---- a table shaped like a real kernel's: hypotheses discharged together, with the SMALL fuel the function needs:
    [K.fuel_ok] does not count the non-alloc sections at address 0 (64 and 28 pages) that the closure skips; the mapped
    sections are exactly the two at or above the offset. ---- *)
(* shape of a real kernel ELF table: null entry, alloc sections at/above the offset, and NON-ALLOC sections
   (.symtab/.strtab/.debug: address 0, large size) that the closure skips at `secAddress < kernelPageOffset` *)
Definition real_secs : list section :=
  (0, 0, 0) :: secs ++ [(0, 0, 0x1c000); (0, 0, 0x40000); (0, 0, 0x11)].

Example C05_setup_kernel_is_translation_real_input :
  OFF < two64 /\ last (boot 0 full) < two64 /\ Forall K.sec_ok real_secs /\ K.fuel_ok 8 OFF real_secs (boot 0 full)
  /\ K.mapped OFF real_secs = [(0x6, OFF + 0x100800, 0x2800); (0x3, OFF + 0x200000, 0x1000)]
  /\ K.sec_n 0 0x40000 = 64
  /\ (match go_vmm_setupPDTForKernel 8 (mk_go_vmm_world [] (boot 0 full)) OFF K.o_kactivate K.o_kinit K.o_kmap M.o_alloc K.o_translate (K.nonempty real_secs)
      with GOk (w, e) => Some (e, length (f_world_trace w)) | _ => None end) = Some (None, 7%nat).
Proof.
  split; [reflexivity|]. split; [reflexivity|]. split; [repeat constructor; reflexivity|].
  split; [apply fuel_ok_b; vm_compute; reflexivity|].
  split; [vm_compute; reflexivity|]. split; vm_compute; reflexivity.
Qed.
