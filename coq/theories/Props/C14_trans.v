(** C14 - tie of the ACPI driver (kernel/device/acpi/acpi.go) to the hand-written model BY TRANSLATION.
    Gen/Trans_acpi_driver.v is regenerated on every run by gen/gotrans (config gen/gotrans/acpi_driver.json, feature
    "acpi" of gen/gotrans/ext_acpi.go) from the current source of [validTable], [locateRSDT], [mapACPITable],
    [enumerateTables], [probeForACPI] and [DriverInit]; for the first two:
    * raw memory is read through an oracle [ld : bytes -> address -> option value]; [T.ld_of m] is the oracle of the
      model's firmware memory [m] (little-endian read of consecutive bytes, None = a byte is missing: the translation
      reports GPanic where the model reports Fault / PStray);
    * [rsdp.Signature[i]], [rsdp.Revision], [rsdp.RSDTAddr], [rsdp2.XSDTAddr] are loads at the field offsets the Go
      compiler reports for table.RSDPDescriptor / table.ExtRSDPDescriptor (Gen/Consts_device_acpi.v), [unsafe.Sizeof] of the pointee of rsdp
      is the compiler's struct size, [extRSDPLength] the named constant of acpi.go;
    * rsdpLocationLow / rsdpLocationHi / rsdpAlignment are parameters (the harness points them at host memory);
    * mapFn / unmapFn are seams: calls are recorded on the trace of the record [world] (most recent first) as
      [GCall "mapFn" [GNum page; GNum frame; GNum flags]] / [GCall "unmapFn" [GNum page]]; what mapFn returns is the
      oracle [T.o_map pfail base]: the call number pfail (0-based, counted from a trace of length base) fails;
    * the deferred closure of locateRSDT runs after the body on every non-panicking path (ext_acpi.go splits the
      function into body / deferred / wrapper); `continue checkNextBlock` from the signature loop is a flag + break.

    [T.locate_result tr0 low (pr, nmap, nunmap)] is: GPanic for PStray, else GOk of the world whose trace is
    nunmap unmapFn calls (pages page_of low, +1, ..) on top of nmap mapFn calls (same pages, frame = page, FlagPresent)
    on top of tr0, with the results (root, useXSDT, nil) for PFound, (0, false, errMissingRSDP) for PMissing and
    (0, false, the mapFn error) for PMapErr.  Fuel: any number above [T.locate_fuel] = pages + slots + 8 + 20 + 36 + 2.
    Hypotheses of C14_locateRSDT_is_translation: every byte of the image is < 256 (the model's memory is N-valued), low is a
    uintptr, and the scan does not wrap (0 < align, hi + align <= 2^64: the hypotheses of C14_rsdp_found; the
    kernel's values are 0xe0000, 0xfffff, 16).
    Statements only; proofs are in Acpi/DriverTrans.v. *)
From Coq Require Import NArith String List.
From FF Require Import Lib.Word Lib.GoOps Gen.Consts_device_acpi Gen.Trans_acpi_driver Acpi.Model Acpi.Spec.
From FF Require Acpi.DriverTrans.
Module T := FF.Acpi.DriverTrans.
Import ListNotations.
Local Open Scope N_scope.

(** validTable: for every memory, pointer, 32-bit length and trace, with fuel above the length, the regenerated function
    returns the model's verdict and leaves the trace alone; a missing byte is a panic. *)
Theorem C14_validTable_is_translation :
  forall (m : mem) (tr0 : list gcall) (ptr len : N) (fuel : nat),
    ptr < two64 -> len < two32 -> (N.to_nat len < fuel)%nat ->
    go_acpi_validTable fuel (mk_go_acpi_world tr0) ptr len (T.ld_of m) =
    match validTable m ptr len with
    | Got b => GOk (mk_go_acpi_world tr0, b)
    | Fault _ => GPanic
    end.
Proof. exact T.validTable_is_translation. Qed.
Print Assumptions C14_validTable_is_translation.

(** ... hence (with C14_valid_table) the regenerated validTable answers true iff the bytes are all there and sum to 0. *)
Theorem C14_validTable_trans_spec :
  forall (m : mem) (tr0 : list gcall) (ptr len : N) (fuel : nat),
    ptr < two64 -> len < two32 -> (N.to_nat len < fuel)%nat ->
    (go_acpi_validTable fuel (mk_go_acpi_world tr0) ptr len (T.ld_of m) = GOk (mk_go_acpi_world tr0, true)
       <-> sums_to_zero m ptr len) /\
    (go_acpi_validTable fuel (mk_go_acpi_world tr0) ptr len (T.ld_of m) = GOk (mk_go_acpi_world tr0, false)
       <-> sums_to_nonzero m ptr len).
Proof. exact T.validTable_trans_spec. Qed.
Print Assumptions C14_validTable_trans_spec.

(** locateRSDT: the regenerated function equals the model's probe - result, mapFn / unmapFn calls in order, panic on a
    stray read - for every memory image, search window, alignment, mapFn failure and initial trace. *)
Theorem C14_locateRSDT_is_translation :
  forall (m : mem) (low hi align : N) (pfail : option N) (tr0 : list gcall) (fuel : nat),
    bytes_ok m -> low < two64 -> 0 < align -> hi + align <= two64 ->
    (N.to_nat (T.locate_fuel low hi align) < fuel)%nat ->
    go_acpi_locateRSDT fuel (mk_go_acpi_world tr0) (T.ld_of m) align hi low (T.o_map pfail (length tr0)) =
    T.locate_result tr0 low (locateRSDT m low hi align pfail).
Proof. exact T.locateRSDT_is_translation. Qed.
Print Assumptions C14_locateRSDT_is_translation.

(** mapACPITable (same generated file): the two calls through the identityMapFn seam are recorded as
    [GCall "identityMapFn" [GNum frame; GNum size; GNum flags]]; [T.o_idmap fail] is the identityMapFn of the model's
    environment - it returns the page of the frame it is given (identity mapping, as the kernel's vmm.IdentityMapRegion and
    the harness stub do) and fails at the calls [fail] selects, numbered over the identityMapFn calls on the trace
    ([T.n_idmap]); the model's seam counter must agree with the trace ([sk s = T.n_idmap tr0]).
    [header.Length] is a 4-byte load at the compiler's offset of SDTHeader.Length from headerPage.Address() +
    vmm.PageOffset(tableAddr) (vmm.PageOffset is taken as a & mask with the regenerated mask, Acpi/TransEnv.v).
    [T.map_result tr0 s (s', r)]: GPanic for MStray, else the world with the model's new seam calls on top of tr0 and
    (header, sizeof(SDTHeader), nil / errTableChecksumMismatch) resp. (nil pointer, sizeof, the seam's error) for MErr.
    Fuel: at least 2^32 (the length field is 32 bits wide; the checksum loop runs over it). *)
Theorem C14_mapACPITable_is_translation :
  forall (m : mem) (fail : N -> bool) (s : seam) (tr0 : list gcall) (addr : N) (fuel : nat),
    bytes_ok m -> addr < two64 -> sk s = T.n_idmap tr0 -> (N.to_nat two32 <= fuel)%nat ->
    go_acpi_mapACPITable fuel (mk_go_acpi_world tr0) addr (T.ld_of m) (T.o_idmap fail) =
    T.map_result tr0 s (mapACPITable m fail s addr).
Proof. exact T.mapACPITable_is_translation. Qed.
Print Assumptions C14_mapACPITable_is_translation.

(** enumerateTables (same generated file).  The method runs over the world; its receiver fields rsdtAddr / useXSDT are
    parameters; [drv.tableMap = make(..)] and [drv.tableMap[sig] = header] are the events [GCall "tableMap.make" []] and
    [GCall "tableMap.set" [GNum sig; GNum header]] (a 4-byte signature is the little-endian number of its bytes), the
    "checksum mismatch; skipping" line is [GCall "Fprintf" [GBytes format; GNum sig; GNum header; GNum length]], the seam
    calls are as for mapACPITable; the local []uintptr is a list (make / indexed store / len / range as in Go).
    [T.abs tr] is the model state a trace stands for: reading the trace oldest call first, an identityMapFn call is counted
    and recorded in the seam, a Fprintf call logs [EvMismatch sig header length], tableMap.set registers, tableMap.make
    empties the table map.
    The theorem: for EVERY memory image with byte-valued cells, EVERY failure pattern [fail] of identityMapFn, root pointer and
    entry width, the regenerated enumerateTables started on the empty trace
    * panics exactly when the model reports a stray read,
    * and otherwise returns the model's result - nil / errTableChecksumMismatch (corrupt root table) / the seam's error
      (abort) - with a trace that stands for exactly the model's final state: the same identityMapFn calls in the same
      order, the same mismatch reports in order, the same registrations in order.
    So the function the theorems of Props/C14.v speak about - C14_registered_iff, C14_enumeration_order,
    C14_enumeration_continues, C14_map_error_aborts, C14_success_no_seam_failure, C14_reports_in_order - is the translation
    of the source.  Fuel: at least 2^32 (lengths are 32-bit).  The relative order BETWEEN the three kinds of events on the
    trace is in the translation but not in the model's state, hence not in this statement. *)
Theorem C14_enumerateTables_is_translation :
  forall (m : mem) (fail : N -> bool) (rsdt : N) (useXSDT : bool) (fuel : nat),
    bytes_ok m -> rsdt < two64 -> (N.to_nat two32 <= fuel)%nat ->
    match enumerateTables m fail rsdt useXSDT with
    | (_, IStray _) =>
        go_acpi_acpiDriver_enumerateTables fuel (mk_go_acpi_world []) rsdt useXSDT (T.ld_of m) (T.o_idmap fail) = GPanic
    | (s, r) =>
        exists tr, go_acpi_acpiDriver_enumerateTables fuel (mk_go_acpi_world []) rsdt useXSDT (T.ld_of m) (T.o_idmap fail) =
                   GOk (mk_go_acpi_world tr, T.err_of r) /\ T.abs tr = s
    end.
Proof. exact T.enumerateTables_is_translation. Qed.
Print Assumptions C14_enumerateTables_is_translation.

(** ---- the remaining control flow of acpi.go: probeForACPI and DriverInit ---- *)
(** probeForACPI returns a device.Driver: nil, or &acpiDriver{rsdtAddr, useXSDT}.  gen/gotrans (config "ctor", a syntax-tree
    rewrite) makes that the triple (false, 0, false) / (true, rsdtAddr, useXSDT).  [T.probe_result] is [T.locate_result] with
    that triple in place of locateRSDT's results: a driver exactly for PFound - carrying exactly the root pointer and the
    entry width the model's probe found -, no driver (nil) for errMissingRSDP and for a mapFn error, GPanic for a stray read;
    the trace (mapFn / unmapFn calls) is locateRSDT's.  Hypotheses: those of C14_locateRSDT_is_translation (= of C14_rsdp_found). *)
Theorem C14_probe_is_translation :
  forall (m : mem) (low hi align : N) (pfail : option N) (tr0 : list gcall) (fuel : nat),
    bytes_ok m -> low < two64 -> 0 < align -> hi + align <= two64 ->
    (N.to_nat (T.locate_fuel low hi align) < fuel)%nat ->
    go_acpi_probeForACPI fuel (mk_go_acpi_world tr0) (T.ld_of m) align hi low (T.o_map pfail (length tr0)) =
    T.probe_result tr0 low (locateRSDT m low hi align pfail).
Proof. exact T.probe_is_translation. Qed.
Print Assumptions C14_probe_is_translation.

(** DriverInit: enumerateTables; on an error return it; else printTableInfo and nil.  [drv.enumerateTables(w)] is the call of
    the translated method (the receiver's rsdtAddr / useXSDT handed on); printTableInfo is NOT translated (it ranges over a Go
    map and formats through kfmt): it is the seam event [T.ev_print] = GCall "printTableInfo" [].  Against the model's
    [driverInit] (the function C14_registered_iff, C14_map_error_aborts, C14_reports_in_order ... are stated about), for
    every image, failure pattern of identityMapFn, root pointer and entry width:
    * model IOk: the translation returns nil, its last call is printTableInfo, and the trace before it stands for the model's
      final state ([T.abs]);
    * model IErrChecksum / IErrMap: the error is returned, printTableInfo is NOT called, the trace stands for the model's state;
    * model IStray: either the translation panics (stray read during enumeration), or the stray read is one the model places
      inside printTableInfo ([info_lines]) - behind the seam -, and the translation is as in the IOk case. *)
Theorem C14_driverInit_is_translation :
  forall (m : mem) (fail : N -> bool) (rsdt : N) (useXSDT : bool) (fuel : nat),
    bytes_ok m -> rsdt < two64 -> (N.to_nat two32 <= fuel)%nat ->
    let res := go_acpi_acpiDriver_DriverInit fuel (mk_go_acpi_world []) rsdt useXSDT (T.ld_of m) (T.o_idmap fail) in
    match driverInit m fail rsdt useXSDT with
    | (s, IOk, _) => exists tr, res = GOk (mk_go_acpi_world (T.ev_print :: tr), None) /\ T.abs tr = s
    | (s, IStray _, _) => res = GPanic \/ exists tr, res = GOk (mk_go_acpi_world (T.ev_print :: tr), None) /\ T.abs tr = s
    | (s, r, _) => exists tr, res = GOk (mk_go_acpi_world tr, T.err_of r) /\ T.abs tr = s
    end.
Proof. exact T.driverInit_is_translation. Qed.
Print Assumptions C14_driverInit_is_translation.

(** The whole path from the BIOS-area scan to the registered table map, as device detection runs it: [T.probe_then_init] is
    the regenerated probeForACPI followed - when it returns a driver - by the regenerated DriverInit ON THE DRIVER IT
    RETURNED and on the trace it left (a two-line Coq composition of the two regenerated terms; hal's driver loop itself is
    C16's subject).  Its result is (driver returned?, DriverInit's error).  For every image, window, alignment, mapFn failure
    and identityMapFn failure pattern:
    * the model's probe finds (root, useXSDT): the outcome is DriverInit's, as above, for exactly that root and width, the final
      trace standing for the model's [driverInit m fail root useXSDT] state (the probe's mapFn / unmapFn calls do not count);
    * errMissingRSDP or a mapFn error: no driver, nothing enumerated (the trace stands for the initial state);
    * a stray read during the scan: panic. *)
Theorem C14_probe_then_init_is_translation :
  forall (m : mem) (low hi align : N) (pfail : option N) (fail : N -> bool) (fuel : nat),
    bytes_ok m -> low < two64 -> 0 < align -> hi + align <= two64 ->
    (N.to_nat (T.locate_fuel low hi align) < fuel)%nat -> (N.to_nat two32 <= fuel)%nat ->
    let res := T.probe_then_init fuel [] (T.ld_of m) align hi low (T.o_map pfail 0) (T.o_idmap fail) in
    match locateRSDT m low hi align pfail with
    | (PFound root x, _, _) =>
        match driverInit m fail root x with
        | (s, IOk, _) => exists tr, res = GOk (mk_go_acpi_world (T.ev_print :: tr), (true, None)) /\ T.abs tr = s
        | (s, IStray _, _) => res = GPanic \/ exists tr, res = GOk (mk_go_acpi_world (T.ev_print :: tr), (true, None)) /\ T.abs tr = s
        | (s, r, _) => exists tr, res = GOk (mk_go_acpi_world tr, (true, T.err_of r)) /\ T.abs tr = s
        end
    | (PMissing, _, _) | (PMapErr, _, _) => exists tr, res = GOk (mk_go_acpi_world tr, (false, None)) /\ T.abs tr = state0
    | (PStray _, _, _) => res = GPanic
    | (PFuel, _, _) => False
    end.
Proof. exact T.probe_then_init_is_translation. Qed.
Print Assumptions C14_probe_then_init_is_translation.
