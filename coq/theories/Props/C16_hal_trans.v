(** C16 — the anchor kernel/hal/hal.go and device.DriverInfoList.Less tied to the hand-written model BY TRANSLATION
    (statements; the proofs are in Hal/HalTrans.v or follow from its theorems in a line or two).  gen/gotrans (config gen/gotrans/hal.json, extension
    gen/gotrans/ext_hal.go) regenerates Gen/Trans_hal.v from the sources on every run: [go_hal_linkTTYToConsole],
    [go_hal_onConsoleInit], [go_hal_onDriverInit] (the type switch; its terminal branch is "onTTYInit") and
    [go_device_DriverInfoList_Less].

    There a driver / console / terminal value is a REFERENCE (a number, 0 = nil; the model's device [d] is the
    reference [d + 1]); [devices.activeConsole] / [devices.activeTTY] are two fields of the world record ([to_w tr st]
    = the world with trace [tr] and the model state's active devices); every call on a reference (AttachTo, SetState,
    SetLogo, SetFont) and kfmt.SetOutputSink is an event pushed on the trace, a call on nil is GPanic; the dynamic type
    of a driver is the oracle [impl_of id p] built from the model's description [p] of the probed driver;
    [Dimensions]' results, logo.BestFit / font.BestFit are parameters; the two loops over the boot command line are
    SUMMARISED by the translator (it checks that they only assign locals): disableLogo is the parameter given the
    model's [h_logo_off], the font found by name is the parameter [selfont] (any value).

    The theorems: whenever the model's step returns [Ok st'] (C16_bringup proves it does on every reachable state),
    the regenerated function returns GOk, leaves exactly the model's active console / terminal, and the calls it
    pushed, [calls], are the model's: their control view ([ctl_calls]: method, device, argument - AttachTo, SetState,
    SetLogo, SetFont in order) equals the control events the model added ([ctl_events]), and the output sink the model
    ends with is the terminal of the last kfmt.SetOutputSink call, if any ([sink_after]).  What SetOutputSink itself
    does (drain the early buffer into the terminal) and the Writes are the model's (and C16_bringup's) business.
    (Side conditions: the step theorems speak only about the case "the model's step returns Ok" - the model's
    link fails only if the drain of the early ring buffer does; what the translation does when the model panics is stated
    for the nil terminal only (C16_link_nil_tty_panics).  [calls] is determined by the first conjunct (it is the prefix
    the translation pushed); the control view drops the ARGUMENT of SetLogo / SetFont (which logo / font: not modelled).
    C16_less_is_translation: the list is shorter than 2^63, i and j are inside it and both DetectOrder values are int8
    values (-128..127).) *)
From Coq Require Import NArith ZArith String List.
From FF Require Import Lib.Word Lib.GoOps Lib.GoOpsHal Gen.Consts_device_tty Gen.Trans_hal.
From FF Require Import Kfmt.Fmt Hal.Model Hal.HalTrans.
Import ListNotations.
Local Open Scope N_scope.

(** linkTTYToConsole, both devices present (the only way it is called): AttachTo(console), SetOutputSink, SetState(active) *)
Theorem C16_link_is_translation :
  forall tr st st' t c,
    h_tty st = Some t -> h_console st = Some c -> link st = Ok st' ->
    go_hal_linkTTYToConsole (to_w tr st) = GOk (to_w (link_calls t c ++ tr) st', tt) /\
    ctl_events (h_trace st') = ctl_calls (link_calls t c) ++ ctl_events (h_trace st) /\
    h_sink st' = sink_after st (link_calls t c).
Proof. exact link_is_translation. Qed.
Print Assumptions C16_link_is_translation.

(** without an active terminal the first call is on a nil interface: a run-time panic (the model: Panic NilDeref) *)
Theorem C16_link_nil_tty_panics :
  forall tr st, h_tty st = None -> go_hal_linkTTYToConsole (to_w tr st) = GPanic /\ link st = Panic NilDeref.
Proof. intros tr st H. split; [exact (link_nil_tty tr st H)|unfold link; rewrite H; reflexivity]. Qed.
Print Assumptions C16_link_nil_tty_panics.

(** onConsoleInit for EVERY state and every console (with or without logo / font support), either setting of
    consoleLogo, any font selection: a second console changes nothing; the first one becomes active, gets its logo
    (unless switched off) and font, and is linked when a terminal is already active (the last step of the Go function,
    which an early return would skip) *)
Theorem C16_onConsoleInit_is_translation :
  forall tr st st' id p d0 d1 ofb olb selfont,
    on_console_init id p st = Ok st' ->
    exists calls,
      go_hal_onConsoleInit (to_w tr st) (id + 1) d0 d1 ofb (impl_of id p) olb (h_logo_off st) selfont
        = GOk (to_w (calls ++ tr) st', tt) /\
      ctl_events (h_trace st') = ctl_calls calls ++ ctl_events (h_trace st) /\
      h_sink st' = sink_after st calls.
Proof. exact onConsoleInit_trans. Qed.
Print Assumptions C16_onConsoleInit_is_translation.

(** the terminal branch of onDriverInit: the first terminal becomes active and is linked when a console is active *)
Theorem C16_onTTYInit_is_translation :
  forall tr st st' id p info d0 d1 ofb olb selfont,
    p_kind p = KTTY -> on_tty_init id st = Ok st' ->
    exists calls,
      go_hal_onDriverInit (to_w tr st) info (id + 1) d0 d1 ofb (impl_of id p) olb (h_logo_off st) selfont
        = GOk (to_w (calls ++ tr) st', tt) /\
      ctl_events (h_trace st') = ctl_calls calls ++ ctl_events (h_trace st) /\
      h_sink st' = sink_after st calls.
Proof.
  intros tr st st' id p info d0 d1 ofb olb selfont Hk E.
  apply onDriverInit_trans. rewrite on_driver_init_cases, Hk. exact E.
Qed.
Print Assumptions C16_onTTYInit_is_translation.

(** onDriverInit as a whole = the model's [on_driver_init] (the function C16_bringup's probe loop calls), for every
    kind of driver *)
Theorem C16_onDriverInit_is_translation :
  forall tr st st' id p info d0 d1 ofb olb selfont,
    on_driver_init id p st = Ok st' ->
    exists calls,
      go_hal_onDriverInit (to_w tr st) info (id + 1) d0 d1 ofb (impl_of id p) olb (h_logo_off st) selfont
        = GOk (to_w (calls ++ tr) st', tt) /\
      ctl_events (h_trace st') = ctl_calls calls ++ ctl_events (h_trace st) /\
      h_sink st' = sink_after st calls.
Proof. exact onDriverInit_trans. Qed.
Print Assumptions C16_onDriverInit_is_translation.

(** the model's two branches ARE [on_driver_init] *)
Theorem C16_on_driver_init_cases :
  forall id p st,
    on_driver_init id p st =
    match p_kind p with KConsole => on_console_init id p st | KTTY => on_tty_init id st | KOther => Ok st end.
Proof. exact on_driver_init_cases. Qed.
Print Assumptions C16_on_driver_init_cases.

(** DriverInfoList.Less(i, j) is the strict order of the DetectOrder values (int8, signed) - the relation
    C16_probe_order's hypothesis "sorted w.r.t. d_order" (the contract of sort.Sort) is about *)
Theorem C16_less_is_translation :
  forall w (l : list driver) i j di dj,
    N.of_nat (length l) < 9223372036854775808 ->
    nth_error l i = Some di -> nth_error l j = Some dj ->
    (-128 <= d_order di <= 127)%Z -> (-128 <= d_order dj <= 127)%Z ->
    go_device_DriverInfoList_Less w (to_infos l) (N.of_nat i) (N.of_nat j) = GOk (w, (d_order di <? d_order dj)%Z).
Proof. exact less_trans. Qed.
Print Assumptions C16_less_is_translation.

Theorem C16_less_out_of_range_panics :
  forall w (l : list driver) i j,
    N.of_nat (length l) <= i -> go_device_DriverInfoList_Less w (to_infos l) i j = GPanic.
Proof. exact less_out_of_range. Qed.
Print Assumptions C16_less_out_of_range_panics.
