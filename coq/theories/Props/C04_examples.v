(** Non-vacuity of the C04 theorems and concrete runs of the model. *)
From Coq Require Import NArith List Lia Bool.
From Coq Require FinFun.
From FF Require Import Lib.Word Gen.Consts_mm_vmm Vmm.Pt Vmm.PtArith Vmm.PtTree Vmm.PtMap Vmm.PtOps Vmm.PtTheorems Vmm.PtInit Vmm.PtPdt Vmm.PtTemp Vmm.PtHist Vmm.PtKernel Vmm.PtRegion Vmm.PtMem.
Import ListNotations.
Local Open Scope N_scope.

Definition LO : N := 0x200000000.
Definition boot : st := init_state LO 16 0 [LO + 1; LO + 2; LO + 3; 0; LO + 4].

(* oracles of consecutive frames [lo + 1 .. lo + n] (written out below, or as a map over [1; ...; n]: the same
   list up to conversion) *)
Lemma consecutive_NoDup lo n : NoDup (map (fun k => lo + N.of_nat k) (seq 1 n)).
Proof. apply FinFun.Injective_map_NoDup; [intros x y; lia | apply seq_NoDup]. Qed.

Lemma consecutive_In lo n f : In f (map (fun k => lo + N.of_nat k) (seq 1 n)) -> lo < f <= lo + N.of_nat n.
Proof. intros H. apply in_map_iff in H as (k & <- & Hk). apply in_seq in Hk. lia. Qed.

(** the boot state of every generated case satisfies the invariant of all the per-operation theorems *)
Example C04_inv_nonvacuous : Inv boot LO LO (own_root LO).
Proof.
  apply Inv_init.
  - reflexivity.
  - unfold LO. change (2 ^ 40) with 1099511627776. lia.
  - unfold ofr, LO. cbn. repeat constructor; cbn; intuition discriminate.
  - intros f Hin Hz. unfold LO in *. cbn in Hin. intuition (subst; try lia).
Qed.

Example C04_map_ok_nonvacuous :
  Inv boot LO LO (own_root LO) /\ hw_idx 0x1234 0 <> 511 /\ zero_guard boot 0x777 3 = false.
Proof. split; [exact C04_inv_nonvacuous|]. split; [vm_compute; discriminate | reflexivity]. Qed.

(** Map(0x1234, 0x777, P|RW) on the boot state takes three frames for the new tables, writes 0x777003 *)
Example C04_map_run :
  match map_page 0x1234 0x777 3 boot with
  | Ok (s', err) => err = 0 /\ aspace s' LO 0x1234 = Some 0x777003 /\ orc s' = [0; LO + 4] /\ flog s' = [0x1234000] /\
                    translation s' LO 0x1234 = Some (0x777, 3) /\ translation s' LO 0x1235 = None /\
                    translate 0x1234abc s' = Ok (0, 0x777abc)
  | Stray => False
  end.
Proof. vm_compute. repeat split; reflexivity. Qed.

(** allocator failure at the 4th call: a second Map that needs a new table fails and changes nothing *)
Example C04_alloc_failure_run :
  match map_page 0x1234 0x777 3 boot with
  | Ok (s1, _) =>
      match map_page 0x40000000 0x888 3 s1 with
      | Ok (s2, err) => err = E_ALLOC /\ translation s2 LO 0x40000000 = None /\ translation s2 LO 0x1234 = Some (0x777, 3)
      | Stray => False
      end
  | Stray => False
  end.
Proof. vm_compute. repeat split; reflexivity. Qed.

(** outside the domain: a frame with bits above 2^40 spills into the flag bits (SetFrame ors it in) *)
Example C04_frame_domain_needed :
  hw_frame (set_flags (set_frame 0 (2 ^ 40 + 5)) 3) = 5 /\ N.testbit (set_flags (set_frame 0 (2 ^ 40 + 5)) 3) 52 = true.
Proof. vm_compute. split; reflexivity. Qed.

Example C04_recursive_entry_nonvacuous :
  N.shiftr (cr3 boot) 12 = LO /\ Rec boot LO LO /\ follow boot LO (firstn 0 (ixs (N.shiftr 0x1234000 12))) = Some LO /\
  resolve boot (walk_entry_addr 0x1234000 0) = Some (LO, 0).
Proof.
  split; [reflexivity|]. split; [exact (inv_rec _ _ _ _ C04_inv_nonvacuous)|]. split; [reflexivity|].
  vm_compute. reflexivity.
Qed.

(** an inactive address space exists: PageDirectoryTable.Init of frame LO+15 on the boot state *)
Example C04_inv2_nonvacuous :
  exists s' own1, pdt_init 0 (LO + 15) boot = Ok (s', 0) /\ Inv2 s' LO (LO + 15) own1 (own_root (LO + 15)) /\ pdts s' 0 = LO + 15.
Proof.
  destruct (pdt_init_spec boot LO (own_root LO) 0 (LO + 15) C04_inv_nonvacuous) as
      (s' & err & own1 & Hrun & _ & Hp & _ & _ & _ & _ & _ & _ & _ & _ & _ & Hok & _ & _ & _).
  - reflexivity.
  - reflexivity.
  - reflexivity.
  - unfold LO. cbn. intuition discriminate.
  - assert (E: match pdt_init 0 (LO + 15) boot with Ok (_, e) => e | Stray => 1 end = 0) by (vm_compute; reflexivity).
    rewrite Hrun in E. subst err. destruct (Hok eq_refl) as (HI2 & _).
    exists s', own1. split; [exact Hrun|]. split; assumption.
Qed.

(** ... and PageDirectoryTable.Map on it leaves the active root bit-for-bit unchanged *)
Definition boot2 : st := init_state LO 16 0 [LO + 1; LO + 2; LO + 3; LO + 4; LO + 5; LO + 6; LO + 7].

Example C04_pdt_inactive_run :
  match pdt_init 0 (LO + 15) boot2 with
  | Ok (s1, _) =>
      match pdt_map 0 0x1234 0x777 3 s1 with
      | Ok (s2, err) => err = 0 /\ translation s2 (LO + 15) 0x1234 = Some (0x777, 3) /\ translation s2 LO 0x1234 = None /\
                        ent s2 LO 511 = ent boot2 LO 511 /\ length (flog s2) = 5%nat
      | Stray => False
      end
  | Stray => False
  end.
Proof. vm_compute. repeat split; reflexivity. Qed.

(** the boot state refines the empty abstract map: hypotheses of histories and of the region theorems *)
Example C04_hst_nonvacuous : Hst boot2 LO (own_root LO) (fun _ => None) /\ Forall hdom [HMap 0x1234 0x777 3; HTranslate 0x1234abc; HUnmap 0x1234].
Proof.
  split.
  - split.
    + apply Inv_init.
      * reflexivity.
      * unfold LO. change (2 ^ 40) with 1099511627776. lia.
      * apply NoDup_filter. exact (consecutive_NoDup LO 7).
      * intros f Hin _. apply (consecutive_In LO 7) in Hin. lia.
    + reflexivity.
    + intros q Hq. unfold translation.
      assert (Hz: forall i, i <> 511 -> ent boot2 LO i = 0).
      { intros i Hi. unfold boot2, init_state, ent. cbn [mem]. rewrite rd_wr, rd_zero, N.eqb_refl.
        destruct (N.eqb_spec i 511); [congruence | reflexivity]. }
      rewrite (empty_space boot2 LO Hz q Hq). reflexivity.
  - repeat constructor; cbn; try (vm_compute; discriminate); try reflexivity; change (2 ^ 40) with 1099511627776; lia.
Qed.

Example C04_history_run :
  match hrun [HMap 0x1234 0x777 3; HTranslate 0x1234abc; HUnmap 0x1234; HTranslate 0x1234abc; HMap 0x40000000 5 1] boot2 with
  | Ok (_, rs) => rs = [(0, 0); (0, 0x777abc); (0, 0); (E_INVALID, 0); (0, 0)]
  | Stray => False
  end.
Proof. vm_compute. reflexivity. Qed.

Example C04_region_run :
  match Pt.map_region 0x5000 8192 3 boot2 with
  | Ok (s', err, page) => err = 0 /\ page = 0xffffff7fffffd /\ last s' = vmm_tempMappingAddr - 8192 /\
                          translation s' LO 0xffffff7fffffd = Some (0x5000, 3) /\ translation s' LO 0xffffff7fffffe = Some (0x5001, 3)
  | Stray => False
  end.
Proof. vm_compute. repeat split; reflexivity. Qed.

(** * [C04_histories_full] / [C06_zero_frame_inv_boot]: a safe adaptive history from boot, and its run *)
From FF Require Import Vmm.Region Vmm.RegionProofs Vmm.PtFault Vmm.PtCow Vmm.PtZero Vmm.PtGlobal Vmm.PtHist2.

Definition xlo : N := 0x1000.
Definition xcnt : N := 0x100.
Definition xoracle : list N := map (fun k => xlo + k) [1; 2; 3; 4; 5; 6; 7; 8; 9; 10; 11; 12].
Definition xfree : list N := [0x1020].
Definition xboot : ast := a_boot xlo vmm_tempMappingAddr xfree xoracle.

(* reserve the zero frame; map it read-only; ask for it writable (refused); make a second address space,
   map the zero frame read-only there too, and switch to it *)
Definition xh : hist :=
  HOp QArm (fun r1 => if fst r1 =? 0 then
    HOp (QMap 0x5000 (snd r1) 1) (fun _ =>
    HOp (QMap 0x5001 (snd r1) P_RW) (fun _ =>
    HOp (QPdtInit 0 0x1020) (fun r4 => if fst r4 =? 0 then
      HOp (QPdtMap 0 0x5002 (snd r1) 1) (fun _ =>
      HOp (QActivate 0) (fun _ => HOp (QTranslate 0x5002000) (fun _ => HDone)))
    else HDone)))
  else HDone).

Lemma xpool_lt F : In F xoracle -> F < 2 ^ 40 /\ F <> 0x1020 /\ F <> 0.
Proof. intros H. apply (consecutive_In xlo 12) in H. unfold xlo in H. change (2 ^ 40) with 1099511627776. lia. Qed.

Example C04_full_nonvacuous_safe : hsafe (fun o a => qdom o a /\ qavoid o a) xh xboot.
Proof.
  cbn [hsafe xh]. split; [split; [reflexivity | exact I]|].
  intros r1 a1 HA1. rewrite astep_arm in HA1.
  destruct HA1 as [(-> & ->) | (F & HF0 & HFp & _ & [(-> & ->) | (-> & ->)])]; cbn [fst snd N.eqb]; try exact I.
  change (apool xboot) with xoracle in HFp. destruct (xpool_lt F HFp) as (HF40 & HFne & _).
  assert (Hg1: forall a, aguard a F 1 = false) by (intros; unfold aguard; change (wants_rw 1) with false; apply andb_false_r).
  assert (Hpg: forall p, In p [0x5000; 0x5001; 0x5002] -> page_ok p F 1 /\ page_ok p F P_RW).
  { intros p Hp. cbn in Hp. repeat (destruct Hp as [<-|Hp]; [repeat split; try exact HF40; try discriminate; reflexivity|]). contradiction. }
  (* Map 0x5000 F read-only *)
  cbn [hsafe]. split.
  { split; [exact (proj1 (Hpg 0x5000 ltac:(cbn; tauto)))|]. change (~ In F (remove N.eq_dec F xoracle)). apply remove_In. }
  intros r2 a2 HA2. rewrite astep_map in HA2. apply amap_act_cases in HA2.
  destruct HA2 as [(Hg & _) | (_ & HA2)]; [rewrite Hg1 in Hg; discriminate|].
  assert (K2: aprot a2 = true /\ azf a2 = F /\ apool a2 = remove N.eq_dec F xoracle /\ afree a2 = [F; 0x1020] /\ aact a2 = xlo /\ aslot a2 0 = None /\ aroots a2 = [xlo]).
  { destruct HA2 as [(_ & ->) | (_ & ->)]; repeat split. }
  clear HA2. destruct K2 as (P2 & Z2 & O2 & F2 & A2 & S2 & R2).
  (* Map 0x5001 F writable: refused *)
  split.
  { split; [exact (proj2 (Hpg 0x5001 ltac:(cbn; tauto)))|]. cbn [qavoid]. rewrite O2. apply remove_In. }
  intros r3 a3 HA3. rewrite astep_map in HA3. apply amap_act_cases in HA3.
  assert (Hg3: aguard a2 F P_RW = true) by (unfold aguard; rewrite P2, Z2, N.eqb_refl; reflexivity).
  destruct HA3 as [(_ & -> & ->) | (Hg & _)]; [|rewrite Hg3 in Hg; discriminate].
  (* Init of the free frame 0x1020 *)
  split.
  { split; [|exact I]. cbn [qdom]. split; [reflexivity|]. split; [rewrite F2; right; left; reflexivity|].
    unfold aguard. rewrite Z2. destruct (N.eqb_spec 0x1020 F) as [E|_]; [exfalso; exact (HFne (eq_sym E))|]. rewrite andb_false_r. reflexivity. }
  intros r4 a4 HA4. rewrite astep_init in HA4. destruct HA4 as [(-> & ->) | (-> & ->)]; cbn [fst N.eqb]; [|exact I].
  (* Map 0x5002 F read-only in the new, inactive address space *)
  set (a4 := a_init a2 0 0x1020).
  assert (S4: aslot a4 0 = Some 0x1020) by reflexivity.
  cbn [hsafe]. split.
  { split; [cbn [qdom]; rewrite S4; split; [reflexivity|]; split; [discriminate | exact (proj1 (Hpg 0x5002 ltac:(cbn; tauto)))]|].
    change (~ In F (apool a2)). rewrite O2. apply remove_In. }
  intros r5 a5 HA5. rewrite (astep_pdt_map 0 0x1020 _ _ _ _ _ _ S4) in HA5.
  apply amap_inact_cases in HA5; [|change (aact a4) with (aact a2); rewrite A2; discriminate]. rewrite Hg1 in HA5.
  assert (S5: aslot a5 0 = Some 0x1020).
  { destruct HA5 as [(_ & _ & ->) | [(_ & _ & ->) | (_ & E & _)]]; [reflexivity | reflexivity | discriminate]. }
  clear HA5.
  (* Activate it, translate *)
  split.
  { split; [|exact I]. cbn [qdom]. rewrite S5. split; [reflexivity | discriminate]. }
  intros r6 a6 HA6. rewrite (astep_activate 0 0x1020 _ _ _ S5) in HA6. destruct HA6 as (-> & ->).
  split; [|intros; exact I].
  split; [|exact I]. cbn [qdom]. vm_compute. discriminate.
Qed.

(* so the model runs this history from the boot state without a stray access, the abstract machine follows it, and at
   the end either the guard is not armed or the zero frame is all zeroes and mapped writable nowhere *)
Example C04_full_nonvacuous_run :
  exists rs s' a' g',
    run_hist xh (init_state xlo xcnt 0 xoracle) = Ok (rs, s') /\
    Steps xh (init_state xlo xcnt 0 xoracle) xboot rs s' a' /\ Rel s' a' g' /\
    (prot s' = true ->
       (forall i, ent s' (zf s') i = 0) /\
       (forall R q fl, In R (aroots a') -> hw_idx q 0 <> 511 -> translation s' R q = Some (zf s', fl) -> N.testbit fl 1 = false)).
Proof.
  apply (boot_histories_zero xlo xcnt 0 xoracle xfree xoracle).
  - reflexivity.
  - vm_compute. discriminate.
  - apply NoDup_filter. exact (consecutive_NoDup xlo 12).
  - intros f Hf _. apply (consecutive_In xlo 12) in Hf. unfold xcnt. lia.
  - intros F [<-|[]]. split; [reflexivity|]. split; [reflexivity|]. intros Hf. apply (consecutive_In xlo 12) in Hf. unfold xlo in Hf. lia.
  - split; [reflexivity | apply N.le_refl].
  - apply incl_refl.
  - exact C04_full_nonvacuous_safe.
Qed.

(* the answers the model actually gives: everything succeeds except the writable mapping of the zero frame *)
Example C04_full_nonvacuous_answers :
  match run_hist xh (init_state xlo xcnt 0 xoracle) with
  | Ok (rs, s') => map (fun x => fst (snd x)) rs = [0; 0; E_ZERO_RW; 0; 0; 0; 0] /\ prot s' = true /\ zf s' = 0x1001
  | Stray => False
  end.
Proof. vm_compute. repeat split. Qed.

