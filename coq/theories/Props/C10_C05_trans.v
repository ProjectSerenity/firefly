(** C10 + C05 - the two translation ties that meet at multiboot.VisitElfSections, composed.

    Props/C05_trans.v ties setupPDTForKernel (kernel/mm/vmm/pdt.go) to the model [setup_kernel] by translation; that
    function CONSUMES VisitElfSections: its section-visitor closure is translated as a visit over an extra parameter
    [sections] = "the (flags, address, size) triples the visitor function delivers", instantiated there with
    [K.nonempty secs] (the non-empty entries of the model's section table), and the tie says explicitly that what
    multiboot.VisitElfSections delivers is C10's subject.  Props/C10_trans.v ties VisitElfSections itself (it RECEIVES the
    visitor: each call is an event GCall "visitor" [GBytes name; GNum flags; GNum address; GNum size]).

    Here, for every well-formed information block: [TC5.block_secs mb] is the section table of the block's first ELF tag
    as the C05 model sees one (flags cut to the 32 bits of ElfSectionFlag, address, size; empty sections included), and
    [TC5.delivered tr] reads the (flags, address, size) triples off the visitor calls on a trace, in call order.  Then
    (1) the REGENERATED VisitElfSections runs without fault, leaves the memory alone and makes the visitor calls [tr];
    (2) what these calls deliver IS [K.nonempty (block_secs mb)] - the C05 tie's instantiation of [sections];
    (3) the REGENERATED setupPDTForKernel run over exactly what was delivered ends like the model [setup_kernel] over the
        block's section table: machine state, error, sequence of seam calls; a stray access of the model is a panic
        (for every kernel offset, machine state and allocator behaviour; hypotheses of C05_setup_kernel_is_translation,
        of which "addresses and sizes are 64-bit" follows from the block's well-formedness, and the
        fuel condition [K.fuel_ok] ranges over the MAPPED sections only (non-empty and at or above the kernel offset): for the all-zero null section that every ELF
        table starts with, the page count `size - 1` would wrap to 2^52 and no fuel would do).
    Still assumed, as in both ties: the two seam conventions (a closure run item by item / events) describe the same Go
    call; the closure ignores the section name; the visitor does not write the information block.
    Proofs in Multiboot/DecodeTransC05.v. *)
From Coq Require Import String NArith List Bool.
From FF Require Import Lib.Word Lib.GoOps Gen.Consts_multiboot Gen.Trans_multiboot Multiboot.Model Multiboot.Spec.
From FF Require Gen.Trans_vmm_kernel Vmm.Pt Vmm.KernelTrans Vmm.PdtTrans Vmm.MapTrans Multiboot.DecodeTrans Multiboot.DecodeTransC05.
Module T := FF.Multiboot.DecodeTrans.
Module TC5 := FF.Multiboot.DecodeTransC05.
Module VP := FF.Vmm.Pt.
Module K := FF.Vmm.KernelTrans.
Module PT := FF.Vmm.PdtTrans.
Module MT := FF.Vmm.MapTrans.
Import ListNotations.
Local Open Scope N_scope.

Theorem C10_C05_setupPDT_through_visitElfSections :
  forall (l : layout) (mb : mbinfo) (fuel : nat) (off : N) (s : VP.st) (tr0 : list gcall) (kfuel : nat),
    mbinfo_wf (l_saddr l) (l_strtab l) mb -> layout_wf l (encode mb) ->
    (find_fuel (mem_of l (encode mb)) <= fuel)%nat -> (S (total_len (mem_of l (encode mb))) <= fuel)%nat ->
    65536 <= N.of_nat fuel ->
    off < two64 -> VP.last s < two64 -> K.fuel_ok kfuel off (TC5.block_secs mb) s ->
    exists tr : list gcall,
      go_multiboot_VisitElfSections T.mld fuel (T.mkw [] (mem_of l (encode mb))) (l_info l) =
        GOk (T.mkw tr (mem_of l (encode mb)), tt) /\
      TC5.delivered tr = K.nonempty (TC5.block_secs mb) /\
      Trans_vmm_kernel.go_vmm_setupPDTForKernel kfuel (Trans_vmm_kernel.mk_go_vmm_world tr0 s) off
          K.o_kactivate K.o_kinit K.o_kmap MT.o_alloc K.o_translate (TC5.delivered tr) =
        match K.setup_kernel_tr off (TC5.block_secs mb) s tr0 with
        | None => GPanic
        | Some (s', e, tr') => GOk (Trans_vmm_kernel.mk_go_vmm_world tr' s', PT.err_of e)
        end /\
      match K.setup_kernel_tr off (TC5.block_secs mb) s tr0 with
      | None => VP.Stray
      | Some (s', e, _) => VP.Ok (s', e)
      end = VP.setup_kernel off (TC5.block_secs mb) s.
Proof. exact TC5.setupPDT_through_visitElfSections. Qed.
Print Assumptions C10_C05_setupPDT_through_visitElfSections.

(** the sections the C10 theorems report for a block, name dropped, are the non-empty entries of its section table *)
Theorem C10_C05_reported_sections_are_the_table :
  forall (strtab : list N) (mb : mbinfo),
    map TC5.sec3_of (expected_sections strtab mb) = K.nonempty (TC5.block_secs mb).
Proof. exact TC5.nonempty_block_secs. Qed.
Print Assumptions C10_C05_reported_sections_are_the_table.

(** addresses and sizes of a well-formed block's section table are 64-bit (a hypothesis of the C05 tie, discharged) *)
Theorem C10_C05_block_sections_ok :
  forall (sa : N) (st : list N) (mb : mbinfo), mbinfo_wf sa st mb -> Forall K.sec_ok (TC5.block_secs mb).
Proof. exact TC5.block_secs_ok. Qed.
Print Assumptions C10_C05_block_sections_ok.
