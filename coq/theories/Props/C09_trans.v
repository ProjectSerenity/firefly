(** C09 - the task programs of [C09_concurrent_frames_exclusive] (Sync/AllocTasks.v: Acquire; one shared
    step [Pmm.Bitmap.step]; Release; return) are the TRANSLATION of the real AllocFrame / FreeFrame, not only
    a skeleton: for the functions regenerated on every run from kernel/mm/pmm/bitmap_allocator.go
    (Gen/Trans_pmm_bitmap.v), on every run that does not panic the mutex events are exactly one Acquire
    followed, last, by one Release (the trace lists the most recent call first), the allocator state goes from
    [a] to [fst (step a o)] and the caller receives [snd (step a o)]; a run that panics (index out of
    range, [RFree FreePanic], which ends the history in the model) is GPanic.  The side conditions
    [S.alloc_sizes] (int-sized slices; fuel above the number of pools, the bitmap lengths and 64) are kept
    by every operation, so this holds along whole histories.  Proofs: Sync/AllocTasksTrans.v on top of
    Pmm/BitmapTrans.v (the ties that Props/C03_trans.v states). *)
From Coq Require Import NArith String List.
From FF Require Import Lib.GoOps Gen.Consts_mm_pmm Gen.Trans_pmm_bitmap Pmm.Bitmap.
From FF Require Pmm.BitmapTrans Sync.AllocTasksTrans.
Module B := FF.Pmm.BitmapTrans.
Module S := FF.Sync.AllocTasksTrans.
Import ListNotations.
Local Open Scope N_scope.

Theorem C09_alloc_task_is_translation :
  forall (mtx : bool) (a : balloc) (tr : list gevent) (o : op) (fuel : nat),
    S.alloc_sizes a fuel ->
    match o with
    | OpAlloc => go_pmm_BitmapAllocator_AllocFrame fuel (B.to_ga mtx a tr)
    | OpFree f =>
        match go_pmm_BitmapAllocator_FreeFrame fuel (B.to_ga mtx a tr) f with
        | GOk (g', e) => GOk (g', (0, e))
        | GPanic => GPanic
        | GFuel => GFuel
        end
    end =
    match snd (step a o) with
    | RFree FreePanic => GPanic
    | r =>
        GOk (B.to_ga mtx (fst (step a o)) (GEv "Release" [] :: GEv "Acquire" [] :: tr),
             match r with
             | RAlloc (Some f) => (f, None)
             | RAlloc None => (mm_InvalidFrame, Some "errBitmapAllocOutOfMemory"%string)
             | RFree FreeNotManaged => (0, Some "errBitmapAllocFrameNotManaged"%string)
             | RFree FreeDoubleFree => (0, Some "errBitmapAllocDoubleFree"%string)
             | RFree _ => (0, None)
             end)
    end.
Proof. exact S.call_is_task_step_explicit. Qed.
Print Assumptions C09_alloc_task_is_translation.

Theorem C09_alloc_task_sizes_kept :
  forall (a : balloc) (o : op) (fuel : nat), S.alloc_sizes a fuel -> S.alloc_sizes (fst (step a o)) fuel.
Proof. exact S.step_keeps_sizes. Qed.
Print Assumptions C09_alloc_task_sizes_kept.
