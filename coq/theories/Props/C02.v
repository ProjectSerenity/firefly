(** C02 — early-boot allocator: ascending unique frames, never kernel or reserved RAM; replay.
    Statements only; every proof is [exact <lemma from Pmm/BootProofs.v>], or a few lines from the lemmas
    about runs from any allocator state there ([run_shape], [alloc_step], [run_dead]).

    [boot_run m ks ke n st] is the result list of [n] consecutive calls of the model of
    BootMemAllocator.AllocFrame ([Some frame] / [None] = out of memory); [successes] keeps the frames.
    [WFmap]: every region has addr+len <= 2^64-4096 and the list is sorted and non-overlapping; any
    number of regions, any alignment, any length (0 and < 1 page included), any type.
    [WFkernel]: page-aligned start, non-empty, inside one available region.
    [good_frame m kstart kend f]: the 4096 bytes of frame [f] lie inside one region of type
    available, and no byte of [kstart,kend) lies in frame [f]. *)
From Coq Require Import NArith List Sorted.
From FF Require Import Lib.Word Gen.Consts_mm_pmm Pmm.Boot Pmm.BootProofs.
Import ListNotations.
Local Open Scope N_scope.

(** For every well-formed map and kernel placement and EVERY number [n] of calls (beyond exhaustion
    too): every frame handed out is wholly inside available RAM and outside the kernel image, and
    each is strictly above all frames handed out before it. *)
Theorem C02_boot_alloc_sound :
  forall (m : memmap) (kstart kend : N) (n : nat),
    WFmap m -> WFkernel m kstart kend ->
    let fs := successes (snd (boot_run m (kernel_start_frame kstart) (kernel_end_frame kend) n boot_reset)) in
    Forall (good_frame m kstart kend) fs /\ StronglySorted N.lt fs.
Proof. intros m kstart kend n Hm Hk. exact (boot_alloc_sound m kstart kend Hm Hk n). Qed.
Print Assumptions C02_boot_alloc_sound.

(** After any number of calls: if no frame remains that is wholly inside available RAM, outside the
    kernel image and above every frame handed out so far, the next call reports out-of-memory
    (the model has no other outcome: a frame or out-of-memory, never a crash). *)
Theorem C02_boot_alloc_oom :
  forall (m : memmap) (kstart kend : N) (n : nat),
    WFmap m -> WFkernel m kstart kend ->
    let '(st, rs) := boot_run m (kernel_start_frame kstart) (kernel_end_frame kend) n boot_reset in
    (forall f, good_frame m kstart kend f -> Forall (fun g => g < f) (successes rs) -> False) ->
    snd (boot_alloc m (kernel_start_frame kstart) (kernel_end_frame kend) st) = None.
Proof. intros m kstart kend n Hm Hk. exact (boot_alloc_oom m kstart kend Hm Hk n). Qed.
Print Assumptions C02_boot_alloc_oom.

(** Out-of-memory is final: once a call fails every later call fails and the allocation counter
    stays what it was. *)
Theorem C02_boot_oom_sticky :
  forall (m : memmap) (kstart kend : N) (n k : nat),
    WFmap m -> WFkernel m kstart kend ->
    let ks := kernel_start_frame kstart in
    let ke := kernel_end_frame kend in
    let '(st, rs) := boot_run m ks ke n boot_reset in
    snd (boot_alloc m ks ke st) = None ->
    snd (boot_run m ks ke k (fst (boot_alloc m ks ke st))) = repeat None k /\
    b_count (fst (boot_alloc m ks ke st)) = b_count st.
Proof.
  intros m kstart kend n k Hm Hk. cbv zeta.
  pose proof (run_shape m kstart kend Hm Hk n boot_reset (reset_inv m kstart kend)) as Sh.
  destruct (boot_run m _ _ n boot_reset) as [st rs]. destruct Sh as (Hinv & _ & _).
  pose proof (alloc_step m kstart kend Hm Hk st Hinv) as A.
  destruct (boot_alloc m _ _ st) as [st1 [f|]]; cbn [snd fst]; [discriminate|].
  intros _. destruct A as (Hdead & Hcnt & _ & _).
  rewrite (run_dead m kstart kend Hm Hk k st1 Hdead). split; [reflexivity|assumption].
Qed.
Print Assumptions C02_boot_oom_sticky.

(** Replay at hand-over: after any [n] calls the counter equals the number of frames handed out, and
    that many calls from the reset state (allocCount, lastAllocFrame := 0, 0 — what
    reserveEarlyAllocatorFrames does) return exactly those frames, in the same order, all
    successfully — also when failed scans had moved the cursor. *)
Theorem C02_boot_replay :
  forall (m : memmap) (kstart kend : N) (n : nat),
    WFmap m -> WFkernel m kstart kend ->
    let ks := kernel_start_frame kstart in
    let ke := kernel_end_frame kend in
    let '(st, rs) := boot_run m ks ke n boot_reset in
    b_count st = N.of_nat (length (successes rs)) /\
    snd (boot_run m ks ke (N.to_nat (b_count st)) boot_reset) = map Some (successes rs).
Proof. intros m kstart kend n Hm Hk. exact (boot_replay m kstart kend Hm Hk n). Qed.
Print Assumptions C02_boot_replay.

(** The kernel frames computed by BootMemAllocator.init are exactly the frames that hold a byte
    of the image. *)
Theorem C02_kernel_frames :
  forall kstart kend f,
    kstart mod 4096 = 0 -> kstart < kend -> kend + 4096 <= two64 ->
    (in_kernel kstart kend f <-> kernel_start_frame kstart <= f <= kernel_end_frame kend).
Proof. intros kstart kend f H1 H2 H3. exact (in_kernel_frames kstart kend H1 H2 H3 f). Qed.
Print Assumptions C02_kernel_frames.

(** The type rewriting of multiboot.VisitMemRegions (0 and out-of-range types become "reserved")
    never changes whether a region counts as available. *)
Theorem C02_type_normalisation :
  forall unknown t, multiboot_MemAvailable <= unknown ->
    (norm_type unknown t =? multiboot_MemAvailable) = (t =? multiboot_MemAvailable).
Proof. exact norm_type_avail. Qed.
Print Assumptions C02_type_normalisation.
