(** C13 - tie of the ObjectTree model to the source BY TRANSLATION.
    Gen/Trans_aml_tree.v is regenerated on every run by gen/gotrans (pool-pointer mode, gen/gotrans/ext_c13trans.go,
    config gen/gotrans/aml_tree.json) from kernel/device/acpi/aml/obj_tree.go: ObjectAt, newObject, newNamedObject,
    append, appendAfter, detach, free (here), NumArgs, ArgAt, ClosestNamedAncestor (Props/C13_trans_q.v), and Find,
    findRelative (Props/C13_trans_find.v).  ObjectTree / Object become records; `objPool []*Object` is the list of the pointees,
    a `*Object` is `option N` - the POSITION in the pool, nil = None (soundness assumption of the mode: objects never
    move in objPool, no entry is nil, every *Object in play comes from this pool; `obj.index` is a plain field that is
    read and written like any other, it is NOT assumed to equal the position); `obj.f` through nil or a position beyond
    the pool, `objPool[i]` out of range and the explicit panic of free are GPanic; `value interface{}` is an opaque
    payload `option V`; `[amlNameLen]byte` is the list of the bytes.
    The hand-written model Aml/Tree.v, about which the C13 theorems (Props/C13.v) and the parser theorems of C11/C12
    are proved, is shown EQUAL to that translation, operation by operation, for EVERY tree (no invariant, no size
    condition: also for ill-formed pools, aliased arguments such as append(obj, obj), dangling indices): the new
    tree, the returned pointer, and every run-time panic.  [TT.tr_tree] maps a model tree to the translation's record
    (pool = map of the objects, a name = its four bytes), [TT.lift] maps Ok / Panic / OutOfFuel to GOk / GPanic / GFuel.
    newObject calls pOpcodeTableIndex (parser_opcode_table.go), which is not translated: the translated newObject takes
    an oracle `N -> bool -> option N` for it, instantiated with the model's own [pOpcodeTableIndex] ([TT.table_oracle];
    Props/C13_trans_opcode.v translates pOpcodeTableIndex too, proves it equal to the model's function and restates
    these ties with the translated callee in place of the oracle).
    The proofs are in Aml/TreeTrans.v; the nil cases at the end hold by computation. *)
From Coq Require Import NArith List.
From FF Require Import Lib.GoOps Lib.GoPool Gen.Consts_aml_tree Gen.Trans_aml_tree Aml.Stream Aml.Tree.
From FF Require Aml.TreeTrans.
Module TT := FF.Aml.TreeTrans.
Import ListNotations.
Local Open Scope N_scope.

(** ObjectAt(index): nil for an index beyond the pool or a freed object, never a panic, tree unchanged *)
Theorem C13_ObjectAt_is_translation :
  forall (V : Type) (t : ObjectTree V) (index : N),
    go_aml_ObjectTree_ObjectAt (TT.tr_tree t) index = GOk (TT.tr_tree t, ObjectAt t index).
Proof. exact @TT.ObjectAt_is_translation. Qed.
Print Assumptions C13_ObjectAt_is_translation.

(** newObject(opcode, tableHandle): reuse of the free-list head or growth of the pool, the field initialisation *)
Theorem C13_newObject_is_translation :
  forall (V : Type) (t : ObjectTree V) (opcode tableHandle : N),
    go_aml_ObjectTree_newObject (TT.tr_tree t) opcode tableHandle TT.table_oracle =
    TT.lift (fun '(t', p) => (TT.tr_tree t', Some p)) (newObject t opcode tableHandle).
Proof. exact @TT.newObject_is_translation. Qed.
Print Assumptions C13_newObject_is_translation.

Theorem C13_newNamedObject_is_translation :
  forall (V : Type) (t : ObjectTree V) (opcode tableHandle : N) (nm : Name),
    go_aml_ObjectTree_newNamedObject (TT.tr_tree t) opcode tableHandle (name_bytes nm) TT.table_oracle =
    TT.lift (fun '(t', p) => (TT.tr_tree t', Some p)) (newNamedObject t opcode tableHandle nm).
Proof. exact @TT.newNamedObject_is_translation. Qed.
Print Assumptions C13_newNamedObject_is_translation.

(** append(obj, arg) for non-nil obj, arg (any positions, also equal ones or ones beyond the pool) *)
Theorem C13_append_is_translation :
  forall (V : Type) (t : ObjectTree V) (obj arg : N),
    go_aml_ObjectTree_append (TT.tr_tree t) (Some obj) (Some arg) =
    TT.lift (fun t' => (TT.tr_tree t', tt)) (append t obj arg).
Proof. exact @TT.append_is_translation. Qed.
Print Assumptions C13_append_is_translation.

(** appendAfter(obj, arg, nextTo): the regular append when nextTo is the last argument, else the four link updates *)
Theorem C13_appendAfter_is_translation :
  forall (V : Type) (t : ObjectTree V) (obj arg nextTo : N),
    go_aml_ObjectTree_appendAfter (TT.tr_tree t) (Some obj) (Some arg) (Some nextTo) =
    TT.lift (fun t' => (TT.tr_tree t', tt)) (appendAfter t obj arg nextTo).
Proof. exact @TT.appendAfter_is_translation. Qed.
Print Assumptions C13_appendAfter_is_translation.

(** detach(obj, arg): the four conditional link updates and the three resets, in program order *)
Theorem C13_detach_is_translation :
  forall (V : Type) (t : ObjectTree V) (obj arg : N),
    go_aml_ObjectTree_detach (TT.tr_tree t) (Some obj) (Some arg) =
    TT.lift (fun t' => (TT.tr_tree t', tt)) (detach t obj arg).
Proof. exact @TT.detach_is_translation. Qed.
Print Assumptions C13_detach_is_translation.

(** free(obj): detach from the parent (a parent index that ObjectAt does not resolve is a nil dereference inside
    detach), the explicit panic when arguments remain, the push on the free list *)
Theorem C13_free_is_translation :
  forall (V : Type) (t : ObjectTree V) (obj : N),
    go_aml_ObjectTree_free (TT.tr_tree t) (Some obj) =
    TT.lift (fun t' => (TT.tr_tree t', tt)) (free t obj).
Proof. exact @TT.free_is_translation. Qed.
Print Assumptions C13_free_is_translation.

(** a nil pointer handed to an edit operation is dereferenced: run-time panic (the model's operations take
    non-nil pointers only) *)
Theorem C13_edit_nil_panics :
  forall (V : Type) (g : @go_aml_ObjectTree V) (p q : option N),
    go_aml_ObjectTree_append g None p = GPanic /\
    go_aml_ObjectTree_appendAfter g p q None = GPanic /\
    go_aml_ObjectTree_detach g None p = GPanic /\
    go_aml_ObjectTree_free g None = GPanic.
Proof. intros; repeat split. Qed.
Print Assumptions C13_edit_nil_panics.
