(** Concrete runs for Props/C03_trans5.v: the connected fragments of setupPoolBitmaps by vm_compute. *)
From Coq Require Import NArith String List Lia.
From FF Require Import Lib.Word Lib.GoOps Lib.GoVisit Gen.Consts_mm_pmm Gen.Trans_pmm_bitmap Pmm.Boot Pmm.Bitmap Pmm.BitmapTrans Pmm.BitmapTrans3 Pmm.BitmapTrans5.
From FF Require Import Props.C03_trans4_examples Props.C03_trans5.
From FF Require Props.C01_examples.
Import ListNotations.
Local Open Scope N_scope.

(** the 4-region map of Props/C03_trans4_examples.v: 2 pools, 193 pages, one page of state at 0xffff800000000000; the pools
    get their frames, freeCount and 2 resp. 2 zero bitmap words; the area ends 0x90 + 16 + 16 bytes behind its start *)
Example C03_trans5_setup_run :
  go_setup_sizes ga0 (map to_gr ex4_map) 0xffff800000000000 =
  GOk (to_ga true (mkBA 193 0 []) [], 2, 4096, 1,
       [mkPool 0x101 0x141 65 [0; 0]; mkPool 0x200 0x27f 128 [0; 0]], 0xffff8000000000b0).
Proof. vm_compute. reflexivity. Qed.

Example C03_trans5_setup_model : pass2 ex4_map = [mkPool 0x101 0x141 65 [0; 0]; mkPool 0x200 0x27f 128 [0; 0]] /\ layout_bytes ex4_map 2 = 0xb0.
Proof. vm_compute. split; reflexivity. Qed.

Example C03_setupPoolBitmaps_is_model_nonvacuous : N.of_nat (length ex4_map) < 2 ^ 64.
Proof. cbn. lia. Qed.

(** the hypotheses of C03_init_with_model_setup hold on the map of Props/C01_examples.v with an oracle that answers
    with the model's set-up; the translated init then yields pmm_init's allocator *)
Definition o_model (ga : go_pmm_BitmapAllocator) (gb : go_pmm_BootMemAllocator) :=
  (to_ga true (mkBA (snd (fst (pass1 C01_examples.pm_map 0))) 0 (pass2 C01_examples.pm_map)) (f_BitmapAllocator_trace ga),
   to_gb C01_examples.pm_kstart C01_examples.pm_kend
         (kernel_start_frame C01_examples.pm_kstart) (kernel_end_frame C01_examples.pm_kend) (mkB 1 1), @None string).

Example C03_trans5_init_is_pmm_init :
  go_pmm_BitmapAllocator_init 300 (to_ga true empty_alloc []) (mk_go_pmm_BootMemAllocator 0 0 0 0 0 0) o_model (map to_gr C01_examples.pm_map) =
  match fst C01_examples.pm_init_result with
  | InitOk a2 b' => GOk (to_ga true a2 [GEv "printStats" []; GEv "setupPoolBitmaps" []],
                         (None, to_gb C01_examples.pm_kstart C01_examples.pm_kend
                                      (kernel_start_frame C01_examples.pm_kstart) (kernel_end_frame C01_examples.pm_kend) b'))
  | _ => GPanic
  end /\
  match fst C01_examples.pm_init_result with InitOk _ _ => True | _ => False end.
Proof. vm_compute. split; [reflexivity|exact I]. Qed.

(** ALL hypotheses of C03_init_with_model_setup discharged together (map of Props/C01_examples.v: 3 pools, kernel
    frames 3..5, one early-boot frame, limit 2^64, no map failure, fuel 300) and the theorem applied *)
Example C03_init_with_model_setup_nonvacuous :
  go_pmm_BitmapAllocator_init 300 (to_ga true empty_alloc []) (mk_go_pmm_BootMemAllocator 0 0 0 0 0 0) o_model (map to_gr C01_examples.pm_map) =
  match fst (pmm_init C01_examples.pm_map C01_examples.pm_kstart C01_examples.pm_kend two64 0) with
  | InitOk a2 b' => GOk (to_ga true a2 [GEv "printStats" []; GEv "setupPoolBitmaps" []],
                         (None, to_gb C01_examples.pm_kstart C01_examples.pm_kend
                                      (kernel_start_frame C01_examples.pm_kstart) (kernel_end_frame C01_examples.pm_kend) b'))
  | InitPanic => GPanic
  | InitHang => GFuel
  | _ => GPanic
  end.
Proof.
  assert (Hm : exists calls, map_pages C01_examples.pm_map (kernel_start_frame C01_examples.pm_kstart) (kernel_end_frame C01_examples.pm_kend)
             (N.shiftr (required_bytes (fst (fst (pass1 C01_examples.pm_map 0))) (snd (pass1 C01_examples.pm_map 0))) PageShift) 0 = MGo (mkB 1 1) calls)
    by (eexists; vm_compute; reflexivity).
  destruct Hm as [calls Hm].
  apply (C03_init_with_model_setup (to_ga true empty_alloc []) (mk_go_pmm_BootMemAllocator 0 0 0 0 0 0) o_model
           true [GEv "setupPoolBitmaps" []] C01_examples.pm_kstart C01_examples.pm_kend C01_examples.pm_map
           C01_examples.pm_kstart C01_examples.pm_kend two64 0 (mkB 1 1) calls 300).
  - vm_compute. reflexivity.
  - exact Hm.
  - vm_compute. reflexivity.
  - vm_compute. reflexivity.
  - vm_compute. reflexivity.
  - vm_compute. lia.
  - vm_compute. reflexivity.
  - vm_compute. lia.
  - vm_compute. reflexivity.
  - vm_compute. lia.
Qed.
