(** C12 — malformed AML is rejected with an error, never a crash, hang or stray pointer.
    Statements; a proof is [exact <lemma>] or the few lines that instantiate a more general theorem of Aml/. *)
From Coq Require Import NArith List.
From FF Require Import Lib.Word Gen.Consts_device_acpi_aml Aml.Stream Aml.Lex Aml.LexProofs Aml.Tree Aml.TreeSpec Aml.Parser Aml.ParserProofs Aml.ParserProofsTop Aml.ParserTotalFirst Aml.ParserTotalConn Aml.ParserTotalTop Aml.ParserTotalNonNamed Aml.ParserTotalCalls Aml.ParserTotalReloc Aml.ParserTotalMerge Aml.ParserTotalResolve Aml.ParserTotalBase Aml.ParserTotalLex Aml.ParserTotalTree Aml.ParserTotalDefer Aml.ParserTotalDeferW Aml.ParserTotalDeferV Aml.ParserTotalTyped Aml.ParserTotalShape Aml.ParserTotalChain Aml.ParserTotalConn2 Aml.ParserTotalPass2 Aml.ParserTotalBenign Aml.ParserTotalFirst2 Aml.ParserTotalNameLex Aml.ParserTotalGoodPath Aml.ParserTotalPass1 Aml.ParserTotalHandle Aml.ParserTotalLoad Aml.ParserTotalMeth Aml.ParserTotalFuel.
Import ListNotations.
Local Open Scope N_scope.

(** reader_safe (the name DESIGN.md gives this part of C12; layers 1-2, full).  For every reader that satisfies the invariant [reader_wf] (cached length =
    length of the table, pkgEnd <= length < 2^32, elements are bytes) and every second reader [r'] that has the same
    length, offset and pkgEnd and the same bytes BELOW pkgEnd ([sim]): each lexer function returns on both (no Go
    panic, no exhausted fuel), with equal values and equal resulting offsets, and leaves data, length and pkgEnd
    untouched ([same_window]).  So no byte at an index >= pkgEnd (<= length) influences any result: every byte read
    by the lexer lies below pkgEnd. *)
Theorem C12_reader_safe :
  safe2 parsePkgLength /\ (forall k, safe2 (parseNumConstant k)) /\ safe2 parseString /\ safe2 parseNameString /\
  safe2 nextOpcode /\ safe2 peekNextOpcode.
Proof. exact reader_safe. Qed.
Print Assumptions C12_reader_safe.

(** the primitive: a byte is only ever delivered from an index below pkgEnd *)
Theorem C12_readByte_window : forall r, reader_wf r ->
  (eof r = true /\ readByte r = Ok (None, r)) \/
  (eof r = false /\ exists b, byte_at (r_data r) (r_offset r) = Some b /\
                              readByte r = Ok (Some b, set_offset_raw r (r_offset r + 1)) /\ r_offset r < r_pkgEnd r).
Proof. exact readByte_total. Qed.
Print Assumptions C12_readByte_window.

(** [lex_slices_inside] (full): every []byte returned by parseString / parseNameString - also when the function
    reports failure - starts at the offset the function was called at and ends inside the current package, hence inside
    the table.  ([no_wrap]: tables within 1 KiB of 4 GiB are excluded, there the parser's uint32 end-offset computation
    can wrap.) *)
Theorem C12_lex_slices_inside : forall r s ok r1, reader_wf r -> no_wrap r ->
  parseString r = Ok (s, ok, r1) \/ parseNameString r = Ok (s, ok, r1) ->
  slice_inside (r_len r) s /\ slice_inside (r_pkgEnd r) s /\ (forall p, s_ptr s = Some p -> p = r_offset r).
Proof. exact lex_slices_inside. Qed.
Print Assumptions C12_lex_slices_inside.

(** ---- the whole parser (Aml/Parser.v: every pass of ParseAML) ---- *)

(** parse_total (DESIGN.md's name), the FULL statement of C12 over the model.  [load payloads] creates the default scopes and
    runs ParseAML on the images (36-byte header + payload) one after the other with fuel [parse_fuel] = 64 + 8 * (length of
    the table + number of pool slots), linear in the input so far (the later passes walk the whole tree, including the
    objects of the tables loaded before); class 0 = success, 1 = errParsingAML, 2 = Go panic, 3 = fuel exhausted.
    For every sequence of byte strings: the outcome is success or the parse error, every []byte the pool refers to
    lies inside the image it aliases, and the pool is a well-formed tree (C13's relation [R] for some forest). *)
Definition C12_full_parse_total : Prop :=
  forall payloads, Forall payload_ok payloads ->
    let '(class, t, imgs) := load payloads in
    (class = 0 \/ class = 1) /\ pool_ok imgs t /\ exists g, R t g.

(** parse_total_partial (DESIGN.md's name for the parts of parse_total that are proved; numbered 1-19) (1): the stray-pointer conjunct, for ALL passes and every input.  Whenever the parser
    returns - success or parse error - every []byte stored in the object pool (strings, names, buffers, byte lists,
    relocated name tails) lies inside the image of the table it aliases.  Missing w.r.t. the full statement: that the
    outcome is never a panic / fuel exhaustion, and the tree relation R (both are covered by the model-vs-implementation
    agreement with explicit Panic / OutOfFuel outcomes and by the independent link checker of the harness). *)
Theorem C12_parse_total_partial_slices : forall payloads class t imgs,
  Forall payload_ok payloads ->
  load payloads = (class, t, imgs) -> class = 0 \/ class = 1 -> pool_ok imgs t.
Proof. exact parse_slices_inside. Qed.
Print Assumptions C12_parse_total_partial_slices.

(** parse_total_partial (2): one ParseAML call from any pool whose slices are inside the earlier images: the slices
    stay inside, the reader still satisfies its invariant (pkgEnd <= length of the table) and still reads the same
    table - with [C12_reader_safe]: no pass reads a byte outside the table. *)
Theorem C12_parse_total_partial_reader : forall tree earlier handle data b s,
  image_ok data -> pool_ok earlier tree -> parseAML tree earlier handle data = Ok (b, s) ->
  pool_ok (earlier ++ [data]) (p_tree s) /\ reader_wf (p_r s) /\ r_data (p_r s) = data.
Proof. exact parseAML_inv. Qed.
Print Assumptions C12_parse_total_partial_reader.

(** the byte-list bounds check (commit 984f446) is what makes the stored list lie inside the current package *)
Theorem C12_bytelist_inside : forall tbls obj dataLen, hoare tbls (parseByteList obj dataLen) (fun _ => True).
Proof. exact hoare_parseByteList. Qed.
Print Assumptions C12_bytelist_inside.

(** ---- no panic, tree relation and fuel for the FIRST PASS ---- *)

(** parse_total_partial (3), passes covered: the first pass only, i.e. everything ParseAML runs before
    connectNamedObjArgs: scopeEnter(0) and parseObjectList with parseNextObject, parseObjectArgs, parseArgs, parseArg,
    parseNamePathOrMethodCall, parseSimpleArg, parseTarget, parseFieldElements, parseByteList and the scope / pkgEnd
    stacks, in parseModeSkipAmbiguousBlocks (the mode of the first pass).
    From the initial parser state of ANY table image [data] (bytes, at least 256 MiB + 1 KiB below 4 GiB) over ANY pool
    [tree] that represents a forest [g] (C13's relation [R]) in which slot 0 (the root scope) is live, whose live
    objects carry opcode-table indexes inside pOpcodeTable, and that leaves room for 4 objects per byte of the table
    below the uint32 object-index sentinel: the first pass NEVER PANICS, for every fuel - no nil dereference
    (ObjectAt / scopeCurrent / parent lookups), no failed type assertion (.value.(uint64) of the field flags), no index
    outside the pool, pOpcodeTable, the opcode maps or the scope stack, no pop of an empty stack.
    Not covered: connectNamedObjArgs and all later passes (they rely on the same invariant, which
    [C12_parse_total_partial_R_first_pass] shows the first pass re-establishes). *)
Theorem C12_parse_total_partial_nopanic_first_pass :
  forall (tree : ObjectTree value) (g : ghost) (earlier : list (list N)) (handle : N) (data : list N) (fuel : nat),
    R tree g ->
    (forall i o, TreeSpec.get tree i = Some o -> o_opcode o <> opFreed -> opInfo (o_infoIndex o) <> None) ->
    glive g 0 ->
    Forall (fun b => b < 256) data -> N.of_nat (length data) + 0x10000400 <= two32 ->
    N.of_nat (length (t_pool tree)) + 4 * N.of_nat (length data) + 4 <= InvalidIndex ->
    (scopeEnter 0 ;;; parseObjectList fuel) (init_state tree earlier handle data) <> Panic.
Proof. exact first_pass_nopanic. Qed.
Print Assumptions C12_parse_total_partial_nopanic_first_pass.

(** parse_total_partial (4), tree relation: under the same hypotheses, whenever the first pass returns (object list
    parsed or parse error) the pool again represents a forest - C13's [R] for some [g'], obtained edit by edit from
    C13's append_R / appendAfter_R / newObject_R - and every live object still has its opcode-table index inside
    pOpcodeTable.  (The forest only grows during the first pass: objects stay live, an existing object never gets a new
    parent, child lists only get longer; that is how the legality of every append - the new child is a root and not
    an ancestor of its new parent - is discharged.) *)
Theorem C12_parse_total_partial_R_first_pass :
  forall (tree : ObjectTree value) (g : ghost) (earlier : list (list N)) (handle : N) (data : list N) (fuel : nat) res s',
    R tree g ->
    (forall i o, TreeSpec.get tree i = Some o -> o_opcode o <> opFreed -> opInfo (o_infoIndex o) <> None) ->
    glive g 0 ->
    Forall (fun b => b < 256) data -> N.of_nat (length data) + 0x10000400 <= two32 ->
    N.of_nat (length (t_pool tree)) + 4 * N.of_nat (length data) + 4 <= InvalidIndex ->
    (scopeEnter 0 ;;; parseObjectList fuel) (init_state tree earlier handle data) = Ok (res, s') ->
    exists g', R (p_tree s') g' /\
      (forall i o, TreeSpec.get (p_tree s') i = Some o -> o_opcode o <> opFreed -> opInfo (o_infoIndex o) <> None).
Proof. exact first_pass_R. Qed.
Print Assumptions C12_parse_total_partial_R_first_pass.

(** parse_total_partial (5), termination of the first pass: under the same hypotheses the first pass RETURNS - neither
    a panic nor exhausted fuel - as soon as the fuel is 8 units per byte of the table plus 5 (so in particular with the
    fuel ParseAML gives it, [parse_fuel] = 64 + 8 * (length of the table + pool slots)), and the pool it returns satisfies
    [R].  Every level of recursion and every loop iteration below parseObjectList is paid for by a consumed byte, and the
    outer loop of parseObjectList pops one package end per iteration: the scope stack is never deeper than the pkgEnd
    stack (in the opcode-table row of every opcode that nextOpcode accepts a TermList argument is preceded by a PkgLen
    argument - checked by computation over the table dumped from /repo - so a scope is only entered after its package
    end was pushed), and every push is paid for by a consumed byte.  (This is the loop that spins forever when the two
    stacks get out of step.)  The lexer functions, layer 2, need no fuel argument at all: [C12_reader_safe]. *)
Theorem C12_parse_total_partial_fuel_first_pass :
  forall (tree : ObjectTree value) (g : ghost) (earlier : list (list N)) (handle : N) (data : list N) (fuel : nat),
    R tree g ->
    (forall i o, TreeSpec.get tree i = Some o -> o_opcode o <> opFreed -> opInfo (o_infoIndex o) <> None) ->
    glive g 0 ->
    Forall (fun b => b < 256) data -> N.of_nat (length data) + 0x10000400 <= two32 ->
    N.of_nat (length (t_pool tree)) + 4 * N.of_nat (length data) + 4 <= InvalidIndex ->
    8 * N.of_nat (length data) + 5 <= N.of_nat fuel ->
    exists res s' g',
      (scopeEnter 0 ;;; parseObjectList fuel) (init_state tree earlier handle data) = Ok (res, s') /\ R (p_tree s') g'.
Proof. exact first_pass_terminates. Qed.
Print Assumptions C12_parse_total_partial_fuel_first_pass.

(** the same below the outer loop, from ANY state that satisfies the invariant of the first pass (spelled out: [R],
    opcode-table indexes valid, reader invariant, table below 4 GiB - 256 MiB - 1 KiB, offset inside the table, skip
    mode, live non-empty scope stack, room for the objects): parsing one object (parseNextObject with everything below
    it) and the inner loop of parseObjectList return as soon as the fuel is 8 units per byte left in the table plus 3. *)
Theorem C12_parse_total_partial_fuel_object :
  forall (fuel : nat) (s : pstate) (g : ghost),
    R (p_tree s) g ->
    (forall i o, TreeSpec.get (p_tree s) i = Some o -> o_opcode o <> opFreed -> opInfo (o_infoIndex o) <> None) ->
    reader_wf (p_r s) -> r_len (p_r s) + 0x10000400 <= two32 -> r_offset (p_r s) <= r_len (p_r s) ->
    p_allBlocks s = false -> Forall (glive g) (p_scopeStack s) -> p_scopeStack s <> [] ->
    N.of_nat (length (t_pool (p_tree s))) + 4 * (r_len (p_r s) - r_offset (p_r s)) + 4 <= InvalidIndex ->
    8 * (r_len (p_r s) - r_offset (p_r s)) + 3 <= N.of_nat fuel ->
    (exists res s' g', parseNextObject fuel s = Ok (res, s') /\ R (p_tree s') g') /\
    (exists ok s' g', objectList_inner fuel s = Ok (ok, s') /\ R (p_tree s') g').
Proof. exact first_pass_fuel. Qed.
Print Assumptions C12_parse_total_partial_fuel_object.

(** ---- connectNamedObjArgs ---- *)

(** parse_total_partial (6), passes covered: connectNamedObjArgs with connectNamed's inner loop, setNameFrom and
    attachSiblingsAsArgs (detach + append of following siblings below a named object).  From ANY parser state whose pool
    satisfies C13's [R], whose live objects carry opcode-table indexes inside pOpcodeTable and whose []byte values lie
    inside their tables ([pool_ok], the invariant of [C12_parse_total_partial_slices]), and for any live start object:
    the pass never panics - no nil dereference (ObjectAt of child / first-arg / sibling / parent links), no index
    outside pOpcodeTable, no read outside the table in copying the name (bytesOf), no short name (.name[:] of a path
    shorter than 4 bytes), no illegal detach / append - and when it returns the pool again satisfies [R] and both
    other invariants.  The forest is rearranged only inside the subtree of the start object: a sibling that is moved
    below the named object is never an ancestor of it (siblings are not descendants of each other).  Fuel exhaustion
    is not excluded here. *)
Theorem C12_parse_total_partial_nopanic_connectNamedObjArgs :
  forall (fuel : nat) (x : N) (s : pstate) (g : ghost),
    R (p_tree s) g ->
    (forall i o, TreeSpec.get (p_tree s) i = Some o -> o_opcode o <> opFreed -> opInfo (o_infoIndex o) <> None) ->
    pool_ok (p_tables s) (p_tree s) -> glive g x ->
    match connectNamedObjArgs fuel x s with
    | Ok (_, s') => exists g', R (p_tree s') g' /\
        (forall i o, TreeSpec.get (p_tree s') i = Some o -> o_opcode o <> opFreed -> opInfo (o_infoIndex o) <> None) /\
        pool_ok (p_tables s') (p_tree s')
    | Panic => False
    | OutOfFuel => True
    end.
Proof. exact connectNamedObjArgs_never_panics. Qed.
Print Assumptions C12_parse_total_partial_nopanic_connectNamedObjArgs.

(** parse_total_partial (7), passes covered: the first pass AND connectNamedObjArgs as ParseAML chains them (the prefix
    of parseAML_body up to and including connectNamedObjArgs(0)), from the initial state of any table image over any
    pool satisfying the invariants: never a panic; the returned pool satisfies [R], has valid opcode-table indexes and
    all its []byte values inside the tables loaded so far.  Not covered: mergeScopeDirectives / relocateNamedObjects,
    parseDeferredBlocks, resolveMethodCalls, connectNonNamedObjArgs. *)
Theorem C12_parse_total_partial_nopanic_first_pass_connectNamedObjArgs :
  forall (tree : ObjectTree value) (g : ghost) (earlier : list (list N)) (handle : N) (data : list N) (fuel : nat),
    R tree g ->
    (forall i o, TreeSpec.get tree i = Some o -> o_opcode o <> opFreed -> opInfo (o_infoIndex o) <> None) ->
    glive g 0 -> pool_ok earlier tree ->
    Forall (fun b => b < 256) data -> N.of_nat (length data) + 0x10000400 <= two32 ->
    N.of_nat (length (t_pool tree)) + 4 * N.of_nat (length data) + 4 <= InvalidIndex ->
    match (scopeEnter 0 ;;;
           mlet r1 <~ parseObjectList fuel ;;
           if pres_eqb r1 RFailed then ret RFailed else connectNamedObjArgs fuel 0) (init_state tree earlier handle data) with
    | Ok (_, s') => exists g', R (p_tree s') g' /\
        (forall i o, TreeSpec.get (p_tree s') i = Some o -> o_opcode o <> opFreed -> opInfo (o_infoIndex o) <> None) /\
        pool_ok (earlier ++ [data]) (p_tree s')
    | Panic => False
    | OutOfFuel => True
    end.
Proof. exact passes12_never_panic. Qed.
Print Assumptions C12_parse_total_partial_nopanic_first_pass_connectNamedObjArgs.

(** ---- resolveMethodCalls and connectNonNamedObjArgs ---- *)

(** parse_total_partial (8), passes covered: connectNonNamedObjArgs (the last pass) with connectNonNamedObjArg and
    attachSiblingsAsArgs(useParent = true): an object that lacks arguments takes the siblings that follow it and, when
    those are used up, the siblings that follow its parent.  From ANY state whose pool satisfies [R], valid opcode-table
    indexes and [pool_ok], started at a live root object: never a panic (no nil parent in detach - an object with a next
    sibling has a parent; no illegal append - a sibling of the parent is not an ancestor: depth argument), and [R] and
    both invariants hold again.  Fuel exhaustion is not excluded. *)
Theorem C12_parse_total_partial_nopanic_connectNonNamedObjArgs :
  forall (fuel : nat) (x : N) (s : pstate) (g : ghost),
    R (p_tree s) g ->
    (forall i o, TreeSpec.get (p_tree s) i = Some o -> o_opcode o <> opFreed -> opInfo (o_infoIndex o) <> None) ->
    pool_ok (p_tables s) (p_tree s) -> glive g x -> groot g x ->
    match connectNonNamedObjArgs fuel x s with
    | Ok (_, s') => exists g', R (p_tree s') g' /\
        (forall i o, TreeSpec.get (p_tree s') i = Some o -> o_opcode o <> opFreed -> opInfo (o_infoIndex o) <> None) /\
        pool_ok (p_tables s') (p_tree s')
    | Panic => False
    | OutOfFuel => True
    end.
Proof.
  intros fuel x s g HR Hi Hp Hl Hroot.
  pose proof (connectNonNamedObjArgs_keeps KT KT_move fuel x s g (mkTI _ _ HR Hi Hp) Hl Hroot I) as W.
  destruct (connectNonNamedObjArgs fuel x s) as [[r s']| |]; auto. destruct W as (g' & [A B C] & _). eauto.
Qed.
Print Assumptions C12_parse_total_partial_nopanic_connectNonNamedObjArgs.

(** parse_total_partial (9), passes covered: resolveMethodCalls (with the Find lookup of C13, the rewriting of
    name-path objects into method calls / resolved references / plain name paths, ArgAt of the method's flags,
    attachSiblingsAsArgs and connectNonNamedObjArg).  From ANY state whose pool satisfies [R], valid opcode-table indexes,
    [pool_ok], has a live root at slot 0, and in which every live pOpIntNamePathOrMethodCall object carries a []byte
    value (what parseNamePathOrMethodCall stores; the pass type-asserts it: argObj.value.([]byte)): never a panic, and all
    of these hold again when it returns.  That typing hypothesis is derived from the earlier passes in (16); fuel exhaustion is
    not excluded. *)
Theorem C12_parse_total_partial_nopanic_resolveMethodCalls :
  forall (fuel : nat) (s : pstate) (g : ghost),
    R (p_tree s) g ->
    (forall i o, TreeSpec.get (p_tree s) i = Some o -> o_opcode o <> opFreed -> opInfo (o_infoIndex o) <> None) ->
    pool_ok (p_tables s) (p_tree s) ->
    (forall i o, TreeSpec.get (p_tree s) i = Some o -> o_opcode o <> opFreed -> o_opcode o = aml_pOpIntNamePathOrMethodCall ->
                 exists tbl sl, o_value o = Some (VBytes tbl sl)) ->
    glive g 0 -> groot g 0 ->
    match resolveMethodCalls fuel 0 s with
    | Ok (_, s') => exists g', R (p_tree s') g' /\
        (forall i o, TreeSpec.get (p_tree s') i = Some o -> o_opcode o <> opFreed -> opInfo (o_infoIndex o) <> None) /\
        pool_ok (p_tables s') (p_tree s') /\
        (forall i o, TreeSpec.get (p_tree s') i = Some o -> o_opcode o <> opFreed -> o_opcode o = aml_pOpIntNamePathOrMethodCall ->
                     exists tbl sl, o_value o = Some (VBytes tbl sl))
    | Panic => False
    | OutOfFuel => True
    end.
Proof.
  intros fuel s g HR Hi Hp Hty H0 Hroot.
  pose proof (resolveMethodCalls_keeps KT KT_move KT_upd fuel s g (mkTI _ _ HR Hi Hp) Hty H0 Hroot I) as W.
  destruct (resolveMethodCalls fuel 0 s) as [[r s']| |]; auto. destruct W as (g' & [A B C] & D & _). eauto.
Qed.
Print Assumptions C12_parse_total_partial_nopanic_resolveMethodCalls.

(** ---- relocateNamedObjects ---- *)

(** parse_total_partial (10), passes covered: relocateNamedObjects (the second half of each resolve pass; with
    ClosestNamedAncestor and Find of C13, scopeOf / nestedScope, the insideSelf check of commit 648a1d7, detach + append of
    the named object below the scope its path prefix names, and the rewrite of its name path to the last segment).  From ANY
    state whose pool satisfies [R], valid opcode-table indexes and [pool_ok], with a live root at slot 0 whose opcode is
    pOpIntScopeBlock: never a panic - in particular `detach(ObjectAt(obj.parentIndex), obj)` never sees a nil parent (an
    object that is relocated is not a root: the only root the walk meets is the ScopeBlock at slot 0), and the append is
    legal because insideSelf has just checked that the target scope is not the object or one of its descendants - and
    [R], both invariants and the live root hold again.  Fuel exhaustion is not excluded. *)
Theorem C12_parse_total_partial_nopanic_relocateNamedObjects :
  forall (fuel : nat) (s : pstate) (g : ghost),
    R (p_tree s) g ->
    (forall i o, TreeSpec.get (p_tree s) i = Some o -> o_opcode o <> opFreed -> opInfo (o_infoIndex o) <> None) ->
    pool_ok (p_tables s) (p_tree s) -> glive g 0 ->
    (exists o, TreeSpec.get (p_tree s) 0 = Some o /\ o_opcode o = aml_pOpIntScopeBlock) ->
    match relocateNamedObjects fuel 0 s with
    | Ok (_, s') => exists g', R (p_tree s') g' /\
        (forall i o, TreeSpec.get (p_tree s') i = Some o -> o_opcode o <> opFreed -> opInfo (o_infoIndex o) <> None) /\
        pool_ok (p_tables s') (p_tree s') /\ glive g' 0
    | Panic => False
    | OutOfFuel => True
    end.
Proof.
  intros fuel s g HR Hi Hp H0 Hroot.
  pose proof (proj1 (reloc_all (fun _ _ => True) (fun _ _ _ _ _ _ => I) ltac:(intros; exact I) fuel) 0 s g (mkTI _ _ HR Hi Hp) I H0 H0 (fun _ => Hroot)) as W.
  unfold wp in W. destruct (relocateNamedObjects fuel 0 s) as [[r s']| |]; auto.
  destruct W as (g' & [A B C] & S' & _). exists g'. repeat (split; [assumption|]). apply (shape_eq_glive _ _ _ S'). exact H0.
Qed.
Print Assumptions C12_parse_total_partial_nopanic_relocateNamedObjects.

(** ---- mergeScopeDirectives ---- *)

(** parse_total_partial (11), passes covered: mergeScopeDirectives (the first half of each resolve pass; with Find of
    C13, scopeOf / nestedScope, moveContents = detach + append of every child of the directive's block to the end of the
    target scope, the three frees of the name, the block and the directive, and the walk that continues over the moved
    objects).  From ANY state whose pool satisfies [R], valid opcode-table indexes and [pool_ok], with a live root at slot 0
    that has no parent and whose opcode is pOpIntScopeBlock, and in which every Scope directive of the table being loaded
    has the shape the first pass gives it - a name that is not a name segment, an opcode-table row without the Named flag, exactly two children: a childless object
    that carries the target path as a []byte value (a four byte path starts with a name character, \ or ^) and a
    pOpIntScopeBlock - from ANY live object [x]: never a panic.  In particular `nameObj.value.([]byte)` is a []byte, the
    target that Find returns lies outside the directive's subtree (a name lookup that starts at the directive's parent
    never descends into an object whose name is not a name segment), so each append is legal and no cycle is created, and
    the three freed objects have no children when they are freed.  [R], the invariants, the root and the shape of the
    remaining directives hold again; no object outside the subtree of [x] is freed.  Fuel exhaustion is not excluded. *)
Theorem C12_parse_total_partial_nopanic_mergeScopeDirectives :
  forall (fuel : nat) (x : N) (s : pstate) (g : ghost),
    R (p_tree s) g ->
    (forall i o, TreeSpec.get (p_tree s) i = Some o -> o_opcode o <> opFreed -> opInfo (o_infoIndex o) <> None) ->
    pool_ok (p_tables s) (p_tree s) ->
    glive g 0 -> groot g 0 ->
    (exists o, TreeSpec.get (p_tree s) 0 = Some o /\ o_opcode o = aml_pOpIntScopeBlock) ->
    (forall d dobj, TreeSpec.get (p_tree s) d = Some dobj -> o_opcode dobj = aml_pOpScope -> o_tableHandle dobj = p_handle s ->
       name_lead (o_name dobj) = false /\
       (forall op fl af, opInfo (o_infoIndex dobj) = Some (op, fl, af) -> hasFlag fl aml_pOpFlagNamed = false) /\
       exists n c no co tbl sl,
         kids g d = [n; c] /\ kids g n = [] /\
         TreeSpec.get (p_tree s) n = Some no /\ o_opcode no <> aml_pOpIntScopeBlock /\ o_opcode no <> aml_pOpScope /\
         o_value no = Some (VBytes tbl sl) /\
         (forall s0 bytes, p_tables s0 = p_tables s -> slice_bytes s0 tbl sl = Ok bytes -> good_path bytes) /\
         TreeSpec.get (p_tree s) c = Some co /\ o_opcode co = aml_pOpIntScopeBlock) ->
    glive g x ->
    match mergeScopeDirectives fuel x s with
    | Ok (_, s') => exists g', R (p_tree s') g' /\
        (forall i o, TreeSpec.get (p_tree s') i = Some o -> o_opcode o <> opFreed -> opInfo (o_infoIndex o) <> None) /\
        pool_ok (p_tables s') (p_tree s') /\
        glive g' 0 /\ groot g' 0 /\
        (exists o, TreeSpec.get (p_tree s') 0 = Some o /\ o_opcode o = aml_pOpIntScopeBlock) /\
        (forall d dobj, TreeSpec.get (p_tree s') d = Some dobj -> o_opcode dobj = aml_pOpScope -> o_tableHandle dobj = p_handle s' ->
           name_lead (o_name dobj) = false /\
           (forall op fl af, opInfo (o_infoIndex dobj) = Some (op, fl, af) -> hasFlag fl aml_pOpFlagNamed = false) /\
           exists n c no co tbl sl,
             kids g' d = [n; c] /\ kids g' n = [] /\
             TreeSpec.get (p_tree s') n = Some no /\ o_opcode no <> aml_pOpIntScopeBlock /\ o_opcode no <> aml_pOpScope /\
             o_value no = Some (VBytes tbl sl) /\
             (forall s0 bytes, p_tables s0 = p_tables s' -> slice_bytes s0 tbl sl = Ok bytes -> good_path bytes) /\
             TreeSpec.get (p_tree s') c = Some co /\ o_opcode co = aml_pOpIntScopeBlock) /\
        (forall y, glive g' y -> glive g y) /\ (forall y, glive g y -> ~ desc g x y -> glive g' y)
    | Panic => False
    | OutOfFuel => True
    end.
Proof.
  intros fuel x s g HR Hi Hp H0 Hr0 Hsb Hty Hl.
  assert (HM : MI KTs NoX s g) by (constructor; auto; [constructor; auto|intros d dobj Hd Hop Hh _; exact (Hty d dobj Hd Hop Hh)|exact I]).
  pose proof (merge_plain fuel x s g HM Hl) as W. unfold wp in W.
  destruct (mergeScopeDirectives fuel x s) as [[r s']| |]; auto.
  destruct W as (g' & [[A B C] D E F G _] & Hlive & Hkeep). exists g'.
  repeat (split; [assumption|]). split; [|split; assumption].
  intros d dobj Hd Hop Hh. exact (G d dobj Hd Hop Hh (fun K => K)).
Qed.
Print Assumptions C12_parse_total_partial_nopanic_mergeScopeDirectives.

(** ---- the resolve passes chained ---- *)

(** parse_total_partial (12), passes covered: resolve_loop = mergeScopeDirectives(0) and relocateNamedObjects(0) alternating
    until both report nothing left to do (or one fails, or the pass counter runs out), as ParseAML runs them.  From ANY state
    that satisfies the hypotheses of (11): never a panic, and all of them hold again - a relocation keeps the shape of the
    Scope directives (the relocated object has the Named flag, a directive has not; neither a directive nor its path object
    is the old parent or the target ScopeBlock; the rewritten name path belongs to the relocated object).  Fuel exhaustion is
    not excluded. *)
Theorem C12_parse_total_partial_nopanic_resolve_loop :
  forall (fuel walkFuel : nat) (s : pstate) (g : ghost),
    R (p_tree s) g ->
    (forall i o, TreeSpec.get (p_tree s) i = Some o -> o_opcode o <> opFreed -> opInfo (o_infoIndex o) <> None) ->
    pool_ok (p_tables s) (p_tree s) ->
    glive g 0 -> groot g 0 ->
    (exists o, TreeSpec.get (p_tree s) 0 = Some o /\ o_opcode o = aml_pOpIntScopeBlock) ->
    (forall d dobj, TreeSpec.get (p_tree s) d = Some dobj -> o_opcode dobj = aml_pOpScope -> o_tableHandle dobj = p_handle s ->
       name_lead (o_name dobj) = false /\
       (forall op fl af, opInfo (o_infoIndex dobj) = Some (op, fl, af) -> hasFlag fl aml_pOpFlagNamed = false) /\
       exists n c no co tbl sl,
         kids g d = [n; c] /\ kids g n = [] /\
         TreeSpec.get (p_tree s) n = Some no /\ o_opcode no <> aml_pOpIntScopeBlock /\ o_opcode no <> aml_pOpScope /\
         o_value no = Some (VBytes tbl sl) /\
         (forall s0 bytes, p_tables s0 = p_tables s -> slice_bytes s0 tbl sl = Ok bytes -> good_path bytes) /\
         TreeSpec.get (p_tree s) c = Some co /\ o_opcode co = aml_pOpIntScopeBlock) ->
    match resolve_loop fuel walkFuel s with
    | Ok (_, s') => exists g', R (p_tree s') g' /\
        (forall i o, TreeSpec.get (p_tree s') i = Some o -> o_opcode o <> opFreed -> opInfo (o_infoIndex o) <> None) /\
        pool_ok (p_tables s') (p_tree s') /\
        glive g' 0 /\ groot g' 0 /\
        (exists o, TreeSpec.get (p_tree s') 0 = Some o /\ o_opcode o = aml_pOpIntScopeBlock) /\
        (forall d dobj, TreeSpec.get (p_tree s') d = Some dobj -> o_opcode dobj = aml_pOpScope -> o_tableHandle dobj = p_handle s' ->
           name_lead (o_name dobj) = false /\
           (forall op fl af, opInfo (o_infoIndex dobj) = Some (op, fl, af) -> hasFlag fl aml_pOpFlagNamed = false) /\
           exists n c no co tbl sl,
             kids g' d = [n; c] /\ kids g' n = [] /\
             TreeSpec.get (p_tree s') n = Some no /\ o_opcode no <> aml_pOpIntScopeBlock /\ o_opcode no <> aml_pOpScope /\
             o_value no = Some (VBytes tbl sl) /\
             (forall s0 bytes, p_tables s0 = p_tables s' -> slice_bytes s0 tbl sl = Ok bytes -> good_path bytes) /\
             TreeSpec.get (p_tree s') c = Some co /\ o_opcode co = aml_pOpIntScopeBlock)
    | Panic => False
    | OutOfFuel => True
    end.
Proof.
  intros fuel walkFuel s g HR Hi Hp H0 Hr0 Hsb Hty.
  assert (HM : MI KTs NoX s g) by (constructor; auto; [constructor; auto|intros d dobj Hd Hop Hh _; exact (Hty d dobj Hd Hop Hh)|exact I]).
  pose proof (resolve_loop_plain walkFuel fuel s g HM) as W. unfold wp in W.
  destruct (resolve_loop fuel walkFuel s) as [[r s']| |]; auto.
  destruct W as (g' & [[A B C] D E F G _]). exists g'. repeat (split; [assumption|]).
  intros d dobj Hd Hop Hh. exact (G d dobj Hd Hop Hh (fun K => K)).
Qed.
Print Assumptions C12_parse_total_partial_nopanic_resolve_loop.

(** ---- parseDeferredBlocks: one deferred block ---- *)

(** parse_total_partial (13), passes covered: the work parseDeferredBlocks does on ONE object whose arguments were skipped
    by the first pass (opcode-table row with pOpFlagDeferParsing: Buffer, While, BankField): mode := parseModeAllBlocks,
    SetPkgEnd / SetOffset to the object's first argument, parseObjectArgs - i.e. the nine mutually recursive functions
    parseNextObject / parseObjectArgs / parseArgs / parseArg / termList / parseNamePathOrMethodCall (names are resolved
    with Find while parsing; a resolved Method makes the parser read `ArgAt(target, 1).value.(uint64)` and parse that many
    call arguments) / parseStrictTermArg (attach to the parent while the arguments are parsed, detach afterwards; popPkgEnd
    at the end of a package) / parseTarget, all of them in the mode of the deferred pass - and the final popping of the pkgEnd
    stack.  From ANY state in which the pool satisfies [R] with valid opcode-table indexes, the reader and the whole-parser
    invariant [Inv] (table link, slices inside) hold, the scope stack holds live objects, the root is live, the pool has room
    for 8 objects per byte of the table, and every Method object is typed ([TM NoX]: its first two children exist, neither
    has a deferred or field-list row, the first is a CHILDLESS pOpIntNamePath object with the name-path row, the second a
    pOpBytePrefix object with its row that carries a number): NEVER a panic - no empty scope stack, no nil
    dereference after Find or ArgAt, no failed `.([]byte)` / `.(uint64)` assertion, every append / detach legal - and
    [R], valid indexes, the reader invariant, live scopes and (after success) the typing of all Methods, including those the
    block declares, hold again; the pool grows by at most 8 objects per table byte + 3.  Fuel exhaustion is not excluded.
    Not covered here: the walk of parseDeferredBlocks over all objects (next theorem); [TM NoX] follows from the earlier passes by
    TM3_TM (end-to-end theorems below). *)
Theorem C12_parse_total_partial_nopanic_deferred_block :
  forall (tbls : list (list N)) (fuel parseFuel : nat) (obj : N) (oo : Obj) (op fl af : N) (s : pstate) (g : ghost),
    R (p_tree s) g ->
    (forall i o, TreeSpec.get (p_tree s) i = Some o -> o_opcode o <> opFreed -> opInfo (o_infoIndex o) <> None) ->
    rok (p_r s) -> Forall (glive g) (p_scopeStack s) -> Inv tbls s ->
    glive g 0 -> glive g obj ->
    TreeSpec.get (p_tree s) obj = Some oo -> opInfo (o_infoIndex oo) = Some (op, fl, af) ->
    hasFlag fl aml_pOpFlagDeferParsing = true -> o_tableHandle oo = p_handle s ->
    (has_fl af -> has_parent g obj) -> TM NoX s g ->
    lp s + 8 * r_len (p_r s) + 7 <= InvalidIndex ->
    match parseDeferredBlocks (S fuel) parseFuel obj s with
    | Ok (res, s') => exists g', R (p_tree s') g' /\
        (forall i o, TreeSpec.get (p_tree s') i = Some o -> o_opcode o <> opFreed -> opInfo (o_infoIndex o) <> None) /\
        rok (p_r s') /\ Forall (glive g') (p_scopeStack s') /\
        gext g g' /\ glive g' 0 /\ lp s' <= lp s + 8 * r_len (p_r s) + 3 /\ (res = ROk -> TM NoX s' g')
    | Panic => False
    | OutOfFuel => True
    end.
Proof. exact deferred_block_never_panics. Qed.
Print Assumptions C12_parse_total_partial_nopanic_deferred_block.

(** parse_total_partial (14), passes covered: the whole of parseDeferredBlocks - the depth-first walk from any live object
    [x] (ParseAML starts it at the root) that parses every pending deferred object it meets (row with pOpFlagDeferParsing and
    the handle of the table being parsed: Buffer, While, BankField; the walk does not descend below such an object) as in the
    previous theorem and otherwise follows the first / next links, re-reading `next` after each child.  [dcnt s g x n]
    describes what the walk will meet: [n] pending deferred objects (one with a field list - a BankField - has a parent;
    none has the internal opcode pOpIntNamePathOrMethodCall).
    With room in the pool for [n] blocks (8 objects per table byte + 3 each) and the hypotheses of the previous theorem:
    NEVER a panic, and [R], valid indexes, the reader invariant, live scopes and (after success) the typing of the Methods
    hold again.  The proof shows that a block changes no payload field other than values, that the child list of an object
    that is not itself pending changes only when it holds a pending BankField, whose parse inserts its NamedFields right
    behind it into the list the walk is iterating - objects that are new, childless and carry the NamedField row, so the
    walk steps over them at no cost - and (partial correctness, judgement hsame) that no parser function changes the
    table handle, so the count of what is still to be visited is stable.  The typing hypothesis of resolveMethodCalls
    (every pOpIntNamePathOrMethodCall object carries a []byte) is preserved: in the mode of the deferred pass no parser
    function creates such an object (nextOpcode never accepts that opcode; ParserTotalDeferM) and only pending objects
    get a new value.
    Fuel exhaustion is not excluded.  Not covered: the derivation of [TM NoX] and [dcnt] from the earlier passes. *)
Theorem C12_parse_total_partial_nopanic_deferred_walk :
  forall (tbls : list (list N)) (fuel parseFuel : nat) (x n : N) (s : pstate) (g : ghost),
    R (p_tree s) g ->
    (forall i o, TreeSpec.get (p_tree s) i = Some o -> o_opcode o <> opFreed -> opInfo (o_infoIndex o) <> None) ->
    rok (p_r s) -> Forall (glive g) (p_scopeStack s) -> Inv tbls s ->
    glive g 0 -> TM NoX s g -> dcnt s g x n ->
    lp s + n * (8 * r_len (p_r s) + 3) + 4 <= InvalidIndex ->
    match parseDeferredBlocks fuel parseFuel x s with
    | Ok (res, s') => exists g', R (p_tree s') g' /\
        (forall i o, TreeSpec.get (p_tree s') i = Some o -> o_opcode o <> opFreed -> opInfo (o_infoIndex o) <> None) /\
        rok (p_r s') /\ Forall (glive g') (p_scopeStack s') /\
        gext g g' /\ glive g' 0 /\ lp s' <= lp s + n * (8 * r_len (p_r s) + 3) /\ (res = ROk -> TM NoX s' g') /\
        ((forall i o, TreeSpec.get (p_tree s) i = Some o -> o_opcode o <> opFreed -> o_opcode o = aml_pOpIntNamePathOrMethodCall ->
                      exists tbl sl, o_value o = Some (VBytes tbl sl)) ->
         (forall i o, TreeSpec.get (p_tree s') i = Some o -> o_opcode o <> opFreed -> o_opcode o = aml_pOpIntNamePathOrMethodCall ->
                      exists tbl sl, o_value o = Some (VBytes tbl sl)))
    | Panic => False
    | OutOfFuel => True
    end.
Proof.
  intros tbls fuel pf x n s g HR Hi Hrk Hsc I0 H0 HTM Hd Hcap.
  assert (H : WI s g) by (constructor; auto).
  pose proof (proj1 (DWL_all tbls fuel) pf x n s g H I0 H0 HTM Hd Hcap) as W.
  unfold wp in W. destruct (parseDeferredBlocks fuel pf x s) as [[res s']| |]; auto.
  destruct W as (g' & [A B C D E] & S1 & L & T). exists g'. repeat (split; [assumption|]).
  split; [apply (ws_g _ _ _ _ S1)|]. split; [apply (ge_live _ _ (ws_g _ _ _ _ S1)); exact H0|]. split; [exact L|]. split; [exact T|apply (ws_typed _ _ _ _ S1)].
Qed.
Print Assumptions C12_parse_total_partial_nopanic_deferred_walk.

(** parse_total_partial (15), passes chained: everything ParseAML does after the resolve loop ([parse_tail], the last three
    passes exactly as in parseAML_body - lemma parseAML_body_tail): parseDeferredBlocks(0), resolveMethodCalls(0),
    connectNonNamedObjArgs(0), each entered only if the previous one succeeded.  From any state with the hypotheses of the
    walk theorem for the root, a parentless root and the typing hypothesis of resolveMethodCalls: NEVER a panic, and when the
    tail returns (true or false) the pool satisfies [R], valid opcode-table indexes and slices-inside.  Fuel exhaustion is
    not excluded; the hypotheses are not derived from passes 1-3. *)
Theorem C12_parse_total_partial_nopanic_tail :
  forall (tbls : list (list N)) (f4 pf f5 f6 : nat) (n : N) (s : pstate) (g : ghost),
    R (p_tree s) g ->
    (forall i o, TreeSpec.get (p_tree s) i = Some o -> o_opcode o <> opFreed -> opInfo (o_infoIndex o) <> None) ->
    rok (p_r s) -> Forall (glive g) (p_scopeStack s) -> Inv tbls s ->
    glive g 0 -> groot g 0 -> TM NoX s g ->
    (forall i o, TreeSpec.get (p_tree s) i = Some o -> o_opcode o <> opFreed -> o_opcode o = aml_pOpIntNamePathOrMethodCall ->
                 exists tbl sl, o_value o = Some (VBytes tbl sl)) ->
    dcnt s g 0 n ->
    lp s + n * (8 * r_len (p_r s) + 3) + 4 <= InvalidIndex ->
    match parse_tail f4 pf f5 f6 s with
    | Ok (_, s') => exists g', R (p_tree s') g' /\
        (forall i o, TreeSpec.get (p_tree s') i = Some o -> o_opcode o <> opFreed -> opInfo (o_infoIndex o) <> None) /\
        pool_ok (p_tables s') (p_tree s')
    | Panic => False
    | OutOfFuel => True
    end.
Proof.
  intros tbls f4 pf f5 f6 n s g HR Hi Hrk Hsc I0 H0 Hroot HTM Hty Hd Hcap.
  pose proof (deferred_tail_post tbls KT KT_move KT_upd f4 pf f5 f6 n s g HR Hi Hrk Hsc I0 H0 Hroot HTM Hty Hd Hcap (fun _ _ _ _ _ _ => I)) as W.
  destruct (parse_tail f4 pf f5 f6 s) as [[b s']| |]; auto. destruct W as (g' & A & B & C & _). eauto.
Qed.
Print Assumptions C12_parse_total_partial_nopanic_tail.

(** parse_total_partial (16), a hypothesis of the later passes DERIVED: the typing hypothesis of resolveMethodCalls - every
    pOpIntNamePathOrMethodCall object carries a []byte, so that `argObj.value.([]byte)` cannot fail - is preserved by the
    first four passes run as in parseAML_body ([parse_head]: scopeEnter(0), parseObjectList, connectNamedObjArgs(0), the
    resolve loop) and by parseDeferredBlocks, from ANY state (partial correctness: whenever they return).  The first pass
    creates such objects together with their []byte; every other write of a value that is not a []byte hits an object
    created just before with a different opcode, or an object whose opcode was read just before (parseObjectArgs);
    nextOpcode never yields that opcode; free only turns objects into free slots.  So the hypothesis of
    C12_parse_total_partial_nopanic_resolveMethodCalls / _tail holds whenever it holds of the pool ParseAML starts with. *)
Theorem C12_parse_total_partial_typed_head :
  forall (fuel : nat) (s : pstate) (b : bool) (s' : pstate),
    parse_head fuel s = Ok (b, s') ->
    (forall i o, TreeSpec.get (p_tree s) i = Some o -> o_opcode o <> opFreed -> o_opcode o = aml_pOpIntNamePathOrMethodCall ->
                 exists tbl sl, o_value o = Some (VBytes tbl sl)) ->
    (forall i o, TreeSpec.get (p_tree s') i = Some o -> o_opcode o <> opFreed -> o_opcode o = aml_pOpIntNamePathOrMethodCall ->
                 exists tbl sl, o_value o = Some (VBytes tbl sl)).
Proof. exact parse_head_typed. Qed.
Print Assumptions C12_parse_total_partial_typed_head.

Theorem C12_parse_total_partial_typed_deferred :
  forall (fuel parseFuel : nat) (x : N) (s : pstate) (r : pres) (s' : pstate),
    parseDeferredBlocks fuel parseFuel x s = Ok (r, s') ->
    (forall i o, TreeSpec.get (p_tree s) i = Some o -> o_opcode o <> opFreed -> o_opcode o = aml_pOpIntNamePathOrMethodCall ->
                 exists tbl sl, o_value o = Some (VBytes tbl sl)) ->
    (forall i o, TreeSpec.get (p_tree s') i = Some o -> o_opcode o <> opFreed -> o_opcode o = aml_pOpIntNamePathOrMethodCall ->
                 exists tbl sl, o_value o = Some (VBytes tbl sl)).
Proof. exact parseDeferredBlocks_typed. Qed.
Print Assumptions C12_parse_total_partial_typed_deferred.

(** parse_total_partial (17), passes chained: EVERYTHING ParseAML does after connectNamedObjArgs ([parse_rest]: the resolve
    loop and, if it succeeds, the tail of the previous theorem - exactly as in parseAML_body, lemma parseAML_body_rest) never
    panics from any state with: [R], valid opcode-table indexes, the reader and whole-parser invariants, an empty scope stack
    (what parseObjectList leaves), a live parentless ScopeBlock root, the Scope-directive shape of
    C12_parse_total_partial_nopanic_mergeScopeDirectives, [TM2] (every Method has two leading plain children - no deferred /
    field-list / named row, not a Scope directive or ScopeBlock - the second carrying a number), [PEND] (every pending deferred
    object of the current table has a parent and is not a name-path-or-call object), the []byte typing of the name-path-or-call
    objects, and room in the pool for one block per pool slot (lp + lp * (8 * len + 3) + 4 <= 2^32 - 1: a memory bound, quadratic
    and generous).  The resolve loop PRESERVES TM2 and PEND (merge moves objects between ScopeBlocks only and frees
    childless objects that are a Scope directive or a child of one; a relocated object has a named row, so it is none of a
    Method's two leading children, and only the value of its own first child is rewritten), it leaves reader, stacks and pool
    size alone, and the count [dcnt] the walk theorem needs EXISTS for every live object and is bounded by the pool size
    (induction over the forest by depth; the subtrees of two siblings are disjoint).  When [parse_rest] returns, [R], valid
    indexes and slices-inside hold.  Fuel exhaustion is not excluded.  NOT derived here: that passes 1-2 establish the directive
    shape, the Method typing and PEND (see the end-to-end theorem).  The Method typing hypothesis is the CONCRETE one, [TM3] (first
    child a childless pOpIntNamePath object with its row, second a pOpBytePrefix object with its row and a number; it implies TM2):
    the typing the deferred pass works with carries these facts, so that the flags argument of a Method is never moved away. *)
Theorem C12_parse_total_partial_nopanic_rest :
  forall (tbls : list (list N)) (fuel : nat) (s : pstate) (g : ghost),
    R (p_tree s) g ->
    (forall i o, TreeSpec.get (p_tree s) i = Some o -> o_opcode o <> opFreed -> opInfo (o_infoIndex o) <> None) ->
    rok (p_r s) -> p_scopeStack s = [] -> Inv tbls s ->
    glive g 0 -> groot g 0 -> is_sb s 0 ->
    tyS NoX (p_tables s) (p_handle s) (p_tree s) g ->
    TM3 (p_tree s) g -> PEND s g ->
    (forall i o, TreeSpec.get (p_tree s) i = Some o -> o_opcode o <> opFreed -> o_opcode o = aml_pOpIntNamePathOrMethodCall ->
                 exists tbl sl, o_value o = Some (VBytes tbl sl)) ->
    lp s + lp s * (8 * r_len (p_r s) + 3) + 4 <= InvalidIndex ->
    match parse_rest fuel s with
    | Ok (_, s') => exists g', R (p_tree s') g' /\
        (forall i o, TreeSpec.get (p_tree s') i = Some o -> o_opcode o <> opFreed -> opInfo (o_infoIndex o) <> None) /\
        pool_ok (p_tables s') (p_tree s')
    | Panic => False
    | OutOfFuel => True
    end.
Proof.
  intros tbls fuel s g HR Hi Hrk Hst I0 H0 Hroot Hsb Hty HTM HP Htyp Hcap.
  pose proof (rest_post tbls KT KT_move KT_upd (fun _ _ _ _ _ _ _ _ _ _ _ _ => I)
                KS3 (fun s g H => proj1 H) (fun s g H => TM3_TM s g (proj2 H)) KS3_loop (fun _ _ _ => I)
                fuel s g HR Hi Hrk Hst I0 H0 Hroot Hsb Hty (conj (conj (TM3_TM2 _ _ HTM) HP) HTM) Htyp Hcap) as W.
  destruct (parse_rest fuel s) as [[b s']| |]; auto. destruct W as (g' & A & B & C & _). eauto.
Qed.
Print Assumptions C12_parse_total_partial_nopanic_rest.

(** the resolve loop alone keeps the typing facts of the later passes (and all its own invariants) *)
Theorem C12_parse_total_partial_resolve_loop_keeps :
  forall (fuel walkFuel : nat) (s : pstate) (g : ghost),
    R (p_tree s) g ->
    (forall i o, TreeSpec.get (p_tree s) i = Some o -> o_opcode o <> opFreed -> opInfo (o_infoIndex o) <> None) ->
    pool_ok (p_tables s) (p_tree s) ->
    glive g 0 -> groot g 0 -> is_sb s 0 ->
    tyS NoX (p_tables s) (p_handle s) (p_tree s) g ->
    TM2 (p_tree s) g -> PEND s g ->
    (forall i o, TreeSpec.get (p_tree s) i = Some o -> o_opcode o <> opFreed -> o_opcode o = aml_pOpIntNamePathOrMethodCall ->
                 exists tbl sl, o_value o = Some (VBytes tbl sl)) ->
    match resolve_loop fuel walkFuel s with
    | Ok (_, s') => exists g', R (p_tree s') g' /\
        (forall i o, TreeSpec.get (p_tree s') i = Some o -> o_opcode o <> opFreed -> opInfo (o_infoIndex o) <> None) /\
        pool_ok (p_tables s') (p_tree s') /\
        glive g' 0 /\ groot g' 0 /\ is_sb s' 0 /\ tyS NoX (p_tables s') (p_handle s') (p_tree s') g' /\
        TM2 (p_tree s') g' /\ PEND s' g' /\
        (forall i o, TreeSpec.get (p_tree s') i = Some o -> o_opcode o <> opFreed -> o_opcode o = aml_pOpIntNamePathOrMethodCall ->
                     exists tbl sl, o_value o = Some (VBytes tbl sl)) /\
        p_r s' = p_r s /\ p_scopeStack s' = p_scopeStack s /\ lp s' = lp s
    | Panic => False
    | OutOfFuel => True
    end.
Proof.
  intros fuel wf s g HR Hi Hpool H0 Hroot Hsb Hty HTM HP Htyp.
  assert (HM : MI KS NoX s g) by (constructor; auto; [constructor; auto|split; auto]).
  pose proof (resolve_loop_MI KS KS_counters KS_move KS_free KS_reloc wf fuel s g HM) as W. unfold wp in W.
  destruct (resolve_loop fuel wf s) as [[r s']| |] eqn:E; auto.
  destruct W as (g' & [[A B C] D E1 F G (K1 & K2)]).
  destruct (resolve_loop_quiet wf fuel s r s' E) as (Q1 & Q2 & Q3).
  exists g'. repeat (split; [assumption|]). split; [exact (resolve_loop_tyk wf fuel s r s' E Htyp)|].
  split; [exact Q1|]. split; [exact Q2|]. unfold lp. rewrite Q3. reflexivity.
Qed.
Print Assumptions C12_parse_total_partial_resolve_loop_keeps.

(** the tail with [PEND] in place of the inductive count: the count exists and is at most the pool size *)
Theorem C12_parse_total_partial_nopanic_tail_pend :
  forall (tbls : list (list N)) (f4 pf f5 f6 : nat) (s : pstate) (g : ghost),
    R (p_tree s) g ->
    (forall i o, TreeSpec.get (p_tree s) i = Some o -> o_opcode o <> opFreed -> opInfo (o_infoIndex o) <> None) ->
    rok (p_r s) -> Forall (glive g) (p_scopeStack s) -> Inv tbls s ->
    glive g 0 -> groot g 0 -> TM NoX s g ->
    (forall i o, TreeSpec.get (p_tree s) i = Some o -> o_opcode o <> opFreed -> o_opcode o = aml_pOpIntNamePathOrMethodCall ->
                 exists tbl sl, o_value o = Some (VBytes tbl sl)) ->
    PEND s g ->
    lp s + lp s * (8 * r_len (p_r s) + 3) + 4 <= InvalidIndex ->
    match parse_tail f4 pf f5 f6 s with
    | Ok (_, s') => exists g', R (p_tree s') g' /\
        (forall i o, TreeSpec.get (p_tree s') i = Some o -> o_opcode o <> opFreed -> opInfo (o_infoIndex o) <> None) /\
        pool_ok (p_tables s') (p_tree s')
    | Panic => False
    | OutOfFuel => True
    end.
Proof.
  intros tbls f4 pf f5 f6 s g HR Hi Hrk Hsc I0 H0 Hroot HTM Hty HP Hcap.
  pose proof (tail_post tbls KT KT_move KT_upd (fun _ _ _ _ _ _ _ _ _ _ _ _ => I) f4 pf f5 f6 s g HR Hi Hrk Hsc I0 H0 Hroot HTM Hty HP Hcap I) as W.
  destruct (parse_tail f4 pf f5 f6 s) as [[b s']| |]; auto. destruct W as (g' & A & B & C & _). eauto.
Qed.
Print Assumptions C12_parse_total_partial_nopanic_tail_pend.

(** parse_total_partial (18), passes chained: EVERYTHING ParseAML does after the FIRST pass ([parse_rest2]:
    connectNamedObjArgs(0), the counter reset, then parse_rest - exactly as in parseAML_body, lemma parseAML_body_rest2) never
    panics from any state with [R], valid indexes, the reader and whole-parser invariants, an empty scope stack, the []byte
    typing, the memory bound, and [SH]: live parentless ScopeBlock root, Scope-directive shape, TM2 and PEND.
    connectNamedObjArgs PRESERVES SH (proof with an abstract invariant threaded through the pass, ParserTotalConn2.v: the pass
    only writes names of named objects that have children, and moves the sibling that follows such an object to the end of its
    child list - a named object with children is neither a Scope directive, nor its childless name path, nor its ScopeBlock,
    nor one of the two plain leading children of a Method).  That the first pass establishes SH is (19); the end-to-end theorem
    chains all of it. *)
Theorem C12_parse_total_partial_nopanic_rest2 :
  forall (tbls : list (list N)) (fuel : nat) (s : pstate) (g : ghost),
    R (p_tree s) g ->
    (forall i o, TreeSpec.get (p_tree s) i = Some o -> o_opcode o <> opFreed -> opInfo (o_infoIndex o) <> None) ->
    rok (p_r s) -> p_scopeStack s = [] -> Inv tbls s ->
    SH3 s g ->
    (forall i o, TreeSpec.get (p_tree s) i = Some o -> o_opcode o <> opFreed -> o_opcode o = aml_pOpIntNamePathOrMethodCall ->
                 exists tbl sl, o_value o = Some (VBytes tbl sl)) ->
    lp s + lp s * (8 * r_len (p_r s) + 3) + 4 <= InvalidIndex ->
    match parse_rest2 fuel s with
    | Ok (_, s') => exists g', R (p_tree s') g' /\
        (forall i o, TreeSpec.get (p_tree s') i = Some o -> o_opcode o <> opFreed -> opInfo (o_infoIndex o) <> None) /\
        pool_ok (p_tables s') (p_tree s')
    | Panic => False
    | OutOfFuel => True
    end.
Proof.
  intros tbls fuel s g HR Hi Hrk Hst I0 HS Htyp Hcap.
  pose proof (rest2_post tbls KT KT_move KT_upd (fun _ _ _ _ _ _ _ _ _ _ _ _ => I)
                KS3 (fun s g H => proj1 H) (fun s g H => TM3_TM s g (proj2 H)) KS3_loop (fun _ _ _ => I)
                SH3 (fun s g H => proj1 H) SH3_conn SH3_KS3 fuel s g HR Hi Hrk Hst I0 HS Htyp Hcap) as W.
  destruct (parse_rest2 fuel s) as [[b s']| |]; auto. destruct W as (g' & A & B & C & _). eauto.
Qed.
Print Assumptions C12_parse_total_partial_nopanic_rest2.

(** parse_total_partial (19), hypotheses of the later passes DERIVED from the first pass: from the initial state of ANY table over
    ANY pool that satisfies [R] with valid indexes, a live parentless ScopeBlock root, typed Methods (TM2) and no object that
    already carries the handle of the new table, the first pass never panics and, when it succeeds, leaves an empty scope stack
    and [LI]: the root facts again, ScopeBlocks on the (now empty) scope stack, TM2 for ALL Methods including the new ones, PEND
    (every pending deferred object has a parent and is no name-path-or-call object), and the structure of every Scope directive
    of the new table (tySw: row without the named flag, exactly two children - a childless name-path object carrying a []byte
    and a ScopeBlock).  Proof: a frame version of the first pass (ParserTotalFirst2.v; what one parseNextObject leaves alone, the
    shape of the object it finishes read off its opcode-table row), the judgement [bn] (ParserTotalBenign.v: below parseNextObject
    no Method / Scope object and no object with a deferred row appears), and the invariant step LI_next_holds. *)
Theorem C12_parse_total_partial_first_pass_shape :
  forall (tree : T) (g : ghost) (earlier : list (list N)) (handle : N) (data : list N) (fuel : nat),
    R tree g ->
    (forall i o, TreeSpec.get tree i = Some o -> o_opcode o <> opFreed -> opInfo (o_infoIndex o) <> None) ->
    glive g 0 -> groot g 0 ->
    (exists o, TreeSpec.get tree 0 = Some o /\ o_opcode o = aml_pOpIntScopeBlock) ->
    TM2 tree g ->
    (forall i o, TreeSpec.get tree i = Some o -> o_tableHandle o <> handle) ->
    image_small data ->
    N.of_nat (length (t_pool tree)) + 4 * N.of_nat (length data) + 4 <= InvalidIndex ->
    match first_pass fuel (init_state tree earlier handle data) with
    | Ok (res, s') => exists g', R (p_tree s') g' /\
        (forall i o, TreeSpec.get (p_tree s') i = Some o -> o_opcode o <> opFreed -> opInfo (o_infoIndex o) <> None) /\
        rok (p_r s') /\ (res = ROk \/ res = RFailed) /\
        (res = ROk -> LI (glive g) s' g' /\ p_scopeStack s' = [])
    | Panic => False
    | OutOfFuel => True
    end.
Proof. exact first_pass_establishes. Qed.
Print Assumptions C12_parse_total_partial_first_pass_shape.

(** A lexer fact used below: the []byte parseNameString returns, when it is four bytes long, starts at a byte of the table that
    is a lead name character, the root character or a parent prefix. *)
Theorem C12_parse_total_namestring_good :
  forall (r : reader) (s : slice) (ok : bool) (r1 : reader),
    rok r -> parseNameString r = Ok (s, ok, r1) ->
    s_len s = 4 -> exists p b0, s_ptr s = Some p /\ byte_at (r_data r) p = Some b0 /\ (is_lead b0 = true \/ b0 = 0x5c \/ b0 = 0x5e).
Proof. exact parseNameString_good. Qed.
Print Assumptions C12_parse_total_namestring_good.

(** parse_total END TO END: ParseAML (parseAML_body with ANY fuel, all six passes) from the initial state of any table over any
    pool NEVER panics, and when it returns the pool satisfies [R], valid indexes and slices-inside.  The hypotheses speak only about
    the pool BEFORE the call and about sizes - nothing about the run:
      - [R], valid opcode-table indexes, a live parentless ScopeBlock root in slot 0;
      - the Methods already in the pool are typed (TM3: first child a childless pOpIntNamePath object with the name-path row, second a
        pOpBytePrefix object with its row and a number - what CreateDefaultScopes (no Method) and every successful ParseAML leave);
      - (nothing about free slots: newObject clears the name of a reused slot since /repo d18acb2, so a Scope directive created
        in a reused slot carries the zero name and a lookup never returns the directive itself);
      - every name-path-or-call object carries a []byte, the slices of the pool lie inside the earlier tables;
      - no object carries the handle of the new table; the image is a table image of at most 2^28 bytes;
      - an explicit (generous, quadratic) memory bound: pool slots + 4 * image bytes, times (8 * image bytes + 3), below 2^32 - 1.
    Everything else - the typing of new Methods, the Scope-directive structure and its names, the good paths the lexer produces,
    parents of pending objects, the []byte typing, existence and bound of the walk count, reader / stack / pool-size facts - is
    derived and chained through all passes.  Fuel exhaustion is not excluded. *)
Theorem C12_parse_total_never_panics :
  forall (tree : T) (g : ghost) (earlier : list (list N)) (handle : N) (data : list N) (fuel : nat),
    R tree g ->
    (forall i o, TreeSpec.get tree i = Some o -> o_opcode o <> opFreed -> opInfo (o_infoIndex o) <> None) ->
    glive g 0 -> groot g 0 ->
    (exists o, TreeSpec.get tree 0 = Some o /\ o_opcode o = aml_pOpIntScopeBlock) ->
    TM3 tree g ->
    (forall i o, TreeSpec.get tree i = Some o -> o_opcode o <> opFreed -> o_opcode o = aml_pOpIntNamePathOrMethodCall ->
                 exists tbl sl, o_value o = Some (VBytes tbl sl)) ->
    pool_ok earlier tree ->
    (forall i o, TreeSpec.get tree i = Some o -> o_tableHandle o <> handle) ->
    image_small data ->
    (let L := N.of_nat (length (t_pool tree)) + 4 * N.of_nat (length data) + 2 in
     L + L * (8 * N.of_nat (length data) + 3) + 4 <= InvalidIndex) ->
    match parseAML_body fuel (init_state tree earlier handle data) with
    | Ok (_, s') => exists g', R (p_tree s') g' /\
        (forall i o, TreeSpec.get (p_tree s') i = Some o -> o_opcode o <> opFreed -> opInfo (o_infoIndex o) <> None) /\
        pool_ok (p_tables s') (p_tree s')
    | Panic => False
    | OutOfFuel => True
    end.
Proof. exact parseAML_body_never_panics. Qed.
Print Assumptions C12_parse_total_never_panics.

(** the same for [parseAML] itself (the model's entry point, with the fuel it passes) *)
Theorem C12_parse_total_parseAML_never_panics :
  forall (tree : T) (g : ghost) (earlier : list (list N)) (handle : N) (data : list N),
    R tree g ->
    (forall i o, TreeSpec.get tree i = Some o -> o_opcode o <> opFreed -> opInfo (o_infoIndex o) <> None) ->
    glive g 0 -> groot g 0 ->
    (exists o, TreeSpec.get tree 0 = Some o /\ o_opcode o = aml_pOpIntScopeBlock) ->
    TM3 tree g ->
    (forall i o, TreeSpec.get tree i = Some o -> o_opcode o <> opFreed -> o_opcode o = aml_pOpIntNamePathOrMethodCall ->
                 exists tbl sl, o_value o = Some (VBytes tbl sl)) ->
    pool_ok earlier tree ->
    (forall i o, TreeSpec.get tree i = Some o -> o_tableHandle o <> handle) ->
    image_small data ->
    (let L := N.of_nat (length (t_pool tree)) + 4 * N.of_nat (length data) + 2 in
     L + L * (8 * N.of_nat (length data) + 3) + 4 <= InvalidIndex) ->
    match parseAML tree earlier handle data with
    | Ok (_, s') => exists g', R (p_tree s') g' /\
        (forall i o, TreeSpec.get (p_tree s') i = Some o -> o_opcode o <> opFreed -> opInfo (o_infoIndex o) <> None) /\
        pool_ok (p_tables s') (p_tree s')
    | Panic => False
    | OutOfFuel => True
    end.
Proof. exact parseAML_never_panics. Qed.
Print Assumptions C12_parse_total_parseAML_never_panics.


(** THE FIRST TABLE, no abstract hypothesis left: over the pool CreateDefaultScopes builds from the empty tree ([ds_tree], the six
    default scopes), ParseAML of the image of ANY payload of bytes of at most 10000 bytes (handle 1) never panics and leaves a pool
    with [R], valid indexes and slices inside the table.  (The size bound is what the generous quadratic memory hypothesis of
    C12_parse_total_never_panics allows for a pool of six objects.)  Fuel exhaustion is not excluded. *)
Theorem C12_parse_total_first_table_never_panics :
  forall payload : list N,
    Forall (fun b => b < 256) payload -> N.of_nat (length payload) <= 10000 ->
    CreateDefaultScopes (@NewObjectTree value) 0 = Ok ds_tree /\
    match parseAML ds_tree [] 1 (table_image payload) with
    | Ok (_, s') => exists g', R (p_tree s') g' /\
        (forall i o, TreeSpec.get (p_tree s') i = Some o -> o_opcode o <> opFreed -> opInfo (o_infoIndex o) <> None) /\
        pool_ok (p_tables s') (p_tree s')
    | Panic => False
    | OutOfFuel => True
    end.
Proof. intros payload Hb Hl. split; [exact ds_create|exact (first_table_never_panics payload Hb Hl)]. Qed.
Print Assumptions C12_parse_total_first_table_never_panics.

(** the same about the model's entry point [load] (the function the correspondence harness runs against the Go parser): the
    outcome class of loading one table is never 2 (= panic) *)
Theorem C12_parse_total_load_first_table_never_panics :
  forall payload : list N,
    Forall (fun b => b < 256) payload -> N.of_nat (length payload) <= 10000 ->
    fst (fst (load [payload])) <> 2.
Proof. exact load_first_table_never_panics. Qed.
Print Assumptions C12_parse_total_load_first_table_never_panics.

(** WHAT A SUCCESSFUL ParseAML RETURNS: under the hypotheses of C12_parse_total_never_panics, when parseAML_body returns (any fuel) the
    pool satisfies [R], valid indexes and slices-inside, and when it returns SUCCESS ([b = true]) in addition: slot 0 is again a live
    parentless ScopeBlock, every name-path-or-call object carries a []byte, and the Methods are typed ([TM3]) - i.e. every hypothesis
    about the pool is RE-ESTABLISHED.  Proof: an abstract tree invariant is threaded through all passes (sections Inv of
    ParserTotalNonNamed.v / ParserTotalCalls.v with hypotheses Kmove / Kupd; deferred_tail_post, rest_post, rest2_post,
    parseAML_body_post), instantiated with "slot 0 holds a ScopeBlock and TM3": first pass LI3, connectNamedObjArgs SH3, resolve loop
    KS3, parseDeferredBlocks by the typing of the walk itself (the block proof now carries the concrete typing of Method objects
    together with "the object whose arguments are parsed / on top of the scope stack does not carry the name-path row", so the name path
    of a Method stays childless), last two passes TM3_move / TM3_upd. *)
Theorem C12_parse_total_post :
  forall (tree : T) (g : ghost) (earlier : list (list N)) (handle : N) (data : list N) (fuel : nat),
    R tree g ->
    (forall i o, TreeSpec.get tree i = Some o -> o_opcode o <> opFreed -> opInfo (o_infoIndex o) <> None) ->
    glive g 0 -> groot g 0 ->
    (exists o, TreeSpec.get tree 0 = Some o /\ o_opcode o = aml_pOpIntScopeBlock) ->
    TM3 tree g ->
    (forall i o, TreeSpec.get tree i = Some o -> o_opcode o <> opFreed -> o_opcode o = aml_pOpIntNamePathOrMethodCall ->
                 exists tbl sl, o_value o = Some (VBytes tbl sl)) ->
    pool_ok earlier tree ->
    (forall i o, TreeSpec.get tree i = Some o -> o_tableHandle o <> handle) ->
    image_small data ->
    (let L := N.of_nat (length (t_pool tree)) + 4 * N.of_nat (length data) + 2 in
     L + L * (8 * N.of_nat (length data) + 3) + 4 <= InvalidIndex) ->
    match parseAML_body fuel (init_state tree earlier handle data) with
    | Ok (b, s') => exists g', R (p_tree s') g' /\
        (forall i o, TreeSpec.get (p_tree s') i = Some o -> o_opcode o <> opFreed -> opInfo (o_infoIndex o) <> None) /\
        pool_ok (p_tables s') (p_tree s') /\
        (b = true -> glive g' 0 /\ groot g' 0 /\
           (forall i o, TreeSpec.get (p_tree s') i = Some o -> o_opcode o <> opFreed -> o_opcode o = aml_pOpIntNamePathOrMethodCall ->
                        exists tbl sl, o_value o = Some (VBytes tbl sl)) /\
           (exists o, TreeSpec.get (p_tree s') 0 = Some o /\ o_opcode o = aml_pOpIntScopeBlock) /\ TM3 (p_tree s') g')
    | Panic => False
    | OutOfFuel => True
    end.
Proof. exact parseAML_body_post3. Qed.
Print Assumptions C12_parse_total_post.

(** HANDLES: ParseAML never changes the handle of an existing slot and creates objects with the handle of the table being parsed only
    (partial-correctness judgement [hb] over every function of all six passes, ParserTotalHandle.v). *)
Theorem C12_parse_total_handles :
  forall (tree : T) (earlier : list (list N)) (h : N) (data : list N) (b : bool) (s' : pstate),
    (forall i o, TreeSpec.get tree i = Some o -> o_tableHandle o <= h) ->
    parseAML tree earlier h data = Ok (b, s') ->
    forall i o, TreeSpec.get (p_tree s') i = Some o -> o_tableHandle o <= h.
Proof. exact parseAML_handles. Qed.
Print Assumptions C12_parse_total_handles.

(** The concrete Method typing implies the abstract one, and each of the last two passes taken alone preserves it (from any state
    with [R], valid indexes, slices inside, []byte typing and a live parentless root). *)
Theorem C12_parse_total_methods_TM3_TM2 : forall (t : T) (g : ghost), TM3 t g -> TM2 t g.
Proof. exact TM3_TM2. Qed.
Print Assumptions C12_parse_total_methods_TM3_TM2.

Theorem C12_parse_total_partial_resolveMethodCalls_keeps_methods :
  forall (fuel : nat) (s : pstate) (g : ghost),
    R (p_tree s) g ->
    (forall i o, TreeSpec.get (p_tree s) i = Some o -> o_opcode o <> opFreed -> opInfo (o_infoIndex o) <> None) ->
    pool_ok (p_tables s) (p_tree s) ->
    (forall i o, TreeSpec.get (p_tree s) i = Some o -> o_opcode o <> opFreed -> o_opcode o = aml_pOpIntNamePathOrMethodCall ->
                 exists tbl sl, o_value o = Some (VBytes tbl sl)) ->
    glive g 0 -> groot g 0 -> TM3 (p_tree s) g ->
    match resolveMethodCalls fuel 0 s with
    | Ok (_, s') => exists g', R (p_tree s') g' /\
        (forall i o, TreeSpec.get (p_tree s') i = Some o -> o_opcode o <> opFreed -> opInfo (o_infoIndex o) <> None) /\
        pool_ok (p_tables s') (p_tree s') /\
        (forall i o, TreeSpec.get (p_tree s') i = Some o -> o_opcode o <> opFreed -> o_opcode o = aml_pOpIntNamePathOrMethodCall ->
                     exists tbl sl, o_value o = Some (VBytes tbl sl)) /\
        glive g' 0 /\ groot g' 0 /\ TM3 (p_tree s') g'
    | Panic => False
    | OutOfFuel => True
    end.
Proof.
  intros fuel s g HR Hi Hp Hty H0 Hroot HTM.
  pose proof (resolveMethodCalls_keeps TM3 TM3_move TM3_upd fuel s g (mkTI _ _ HR Hi Hp) Hty H0 Hroot HTM) as W.
  destruct (resolveMethodCalls fuel 0 s) as [[r s']| |]; auto. destruct W as (g' & [A B C] & D). exists g'. auto.
Qed.
Print Assumptions C12_parse_total_partial_resolveMethodCalls_keeps_methods.

Theorem C12_parse_total_partial_connectNonNamedObjArgs_keeps_methods :
  forall (fuel : nat) (s : pstate) (g : ghost),
    R (p_tree s) g ->
    (forall i o, TreeSpec.get (p_tree s) i = Some o -> o_opcode o <> opFreed -> opInfo (o_infoIndex o) <> None) ->
    pool_ok (p_tables s) (p_tree s) ->
    (forall i o, TreeSpec.get (p_tree s) i = Some o -> o_opcode o <> opFreed -> o_opcode o = aml_pOpIntNamePathOrMethodCall ->
                 exists tbl sl, o_value o = Some (VBytes tbl sl)) ->
    glive g 0 -> groot g 0 -> TM3 (p_tree s) g ->
    match connectNonNamedObjArgs fuel 0 s with
    | Ok (_, s') => exists g', R (p_tree s') g' /\
        (forall i o, TreeSpec.get (p_tree s') i = Some o -> o_opcode o <> opFreed -> opInfo (o_infoIndex o) <> None) /\
        pool_ok (p_tables s') (p_tree s') /\
        (forall i o, TreeSpec.get (p_tree s') i = Some o -> o_opcode o <> opFreed -> o_opcode o = aml_pOpIntNamePathOrMethodCall ->
                     exists tbl sl, o_value o = Some (VBytes tbl sl)) /\
        glive g' 0 /\ groot g' 0 /\ TM3 (p_tree s') g'
    | Panic => False
    | OutOfFuel => True
    end.
Proof.
  intros fuel s g HR Hi Hp Hty H0 Hroot HTM.
  pose proof (connectNonNamedObjArgs_keeps TM3 TM3_move fuel 0 s g (mkTI _ _ HR Hi Hp) H0 Hroot HTM) as W.
  destruct (connectNonNamedObjArgs fuel 0 s) as [[r s']| |]; auto. destruct W as (g' & [A B C] & Hpf & Hlv & Hrt & E).
  exists g'. repeat (split; [assumption|]). split; [eapply typed_pframe; eauto|auto].
Qed.
Print Assumptions C12_parse_total_partial_connectNonNamedObjArgs_keeps_methods.

(** A SEQUENCE OF TABLES, UNCONDITIONAL.  [INV] is the invariant of the load loop: the hypotheses of C12_parse_total_never_panics about
    the pool (R, valid indexes, live parentless ScopeBlock root, Method typing TM3, []byte typing, slices inside the tables loaded so
    far) and "every handle in the pool is below the next handle".  It holds for the pool of CreateDefaultScopes with handle 1 (ds_INV),
    and a SUCCESSFUL ParseAML re-establishes it for the next handle (C12_parse_total_parseAML_keeps_invariant).  [fits] is the size
    hypothesis of one table: image_small (bytes below 256, image of at most 2^28 bytes) and the quadratic memory bound over the pool at
    that moment; [SEQ] asks [fits] for each table in turn, over the pool the previous successful loads left - NOTHING else.
    C12_parse_total_load_sequence_never_panics: from any pool with INV, loading ANY NUMBER of tables (handles h, h+1, ...; the loop
    stops at the first table that fails to parse) never panics.  C12_parse_total_load_never_panics: the model's entry point [load] (the
    function the correspondence harness runs against the Go parser: CreateDefaultScopes, then the tables with handles 1, 2, ...) never
    has outcome class 2 (= panic).  Fuel exhaustion (class 3) is not excluded.
    (The size of [fits]: it is L + L * (8 * len + 3) + 4 <= 0xffffffff with L = pool slots + 4 * len + 2, i.e. about
    32 * len^2 <= 2^32 for a small pool: over the six default scopes an image (header included) may have at most about 11.5 KB - the
    8648-byte DSDT.aml of /repo's tabletest fits (C12_load_never_panics_real_size), NO image of 12000 bytes does
    (C12_fits_excludes_12000_bytes), and every table loaded before makes the bound tighter.  Larger tables are outside these three
    theorems.  The handle [h] is an unbounded number here; in Go it is a uint8.) *)
Theorem C12_parse_total_parseAML_keeps_invariant :
  forall (tree : T) (g : ghost) (earlier : list (list N)) (h : N) (data : list N) (s : pstate),
    INV tree g earlier h -> fits tree data -> parseAML tree earlier h data = Ok (true, s) ->
    exists g', INV (p_tree s) g' (earlier ++ [data]) (h + 1).
Proof. exact parseAML_keeps_INV. Qed.
Print Assumptions C12_parse_total_parseAML_keeps_invariant.

Theorem C12_parse_total_load_sequence_never_panics :
  forall (payloads : list (list N)) (tree : T) (g : ghost) (earlier : list (list N)) (h : N),
    INV tree g earlier h -> SEQ tree earlier h payloads -> fst (fst (load_tables tree earlier h payloads)) <> 2.
Proof. exact load_tables_never_panics. Qed.
Print Assumptions C12_parse_total_load_sequence_never_panics.

Theorem C12_parse_total_load_never_panics :
  forall payloads : list (list N), SEQ ds_tree [] 1 payloads -> fst (fst (load payloads)) <> 2.
Proof. exact load_never_panics. Qed.
Print Assumptions C12_parse_total_load_never_panics.

(** NEVER A HANG, pass 2: connectNamedObjArgs run from any live object of any state with [R], valid indexes and slices inside, with
    at least TWICE AS MUCH FUEL AS THE POOL HAS SLOTS, RETURNS - neither Panic nor OutOfFuel - and re-establishes the three.  The
    measure: the walk from an object needs at most twice the size of its subtree; the loop over the first children of an object,
    the last ones done, twice the size of the subtrees still to visit plus the number of the children done plus one (that bounds
    the iterations of attachSiblingsAsArgs too: it stops when the siblings are used up).  The specifications of
    ParserTotalConn2.v say "out of fuel only if the fuel is below the measure"; the size of a subtree is the length of a
    duplicate-free list of live descendants, hence at most the pool size (ParserTotalFuel.v).  ParseAML's own fuel for the pass,
    parse_fuel (table length + slots of the pool it started with) = 64 + 8 * that, is at least twice the pool size as long as the first
    pass has created at most 4 objects per byte + 2 (C12_parse_total_fuel_enough) - the bound the first-pass theorems give. *)
Theorem C12_parse_total_partial_fuel_connectNamedObjArgs :
  forall (fuel : nat) (x : N) (s : pstate) (g : ghost),
    R (p_tree s) g ->
    (forall i o, TreeSpec.get (p_tree s) i = Some o -> o_opcode o <> opFreed -> opInfo (o_infoIndex o) <> None) ->
    pool_ok (p_tables s) (p_tree s) -> glive g x ->
    (2 * length (t_pool (p_tree s)) <= fuel)%nat ->
    match connectNamedObjArgs fuel x s with
    | Ok (_, s') => exists g', R (p_tree s') g' /\
        (forall i o, TreeSpec.get (p_tree s') i = Some o -> o_opcode o <> opFreed -> opInfo (o_infoIndex o) <> None) /\
        pool_ok (p_tables s') (p_tree s')
    | Panic => False
    | OutOfFuel => False
    end.
Proof. exact connectNamedObjArgs_returns. Qed.
Print Assumptions C12_parse_total_partial_fuel_connectNamedObjArgs.

Theorem C12_parse_total_fuel_enough :
  forall len pool0 pool : nat, (pool <= pool0 + 4 * len + 2)%nat -> (2 * pool <= parse_fuel (len + pool0))%nat.
Proof. exact parse_fuel_enough. Qed.
Print Assumptions C12_parse_total_fuel_enough.

(** NEVER A HANG, passes 5 and 6: resolveMethodCalls and connectNonNamedObjArgs from the root - each alone, and chained as ParseAML
    chains them ([parse_tail2]) - with at least twice as much fuel as the pool has slots RETURN (neither Panic nor OutOfFuel) from any
    state with [R], valid indexes, slices inside, the []byte typing and a live parentless root.  Same measure as for pass 2, plus
    the siblings that FOLLOW the object (attachSiblingsAsArgs with useParent may take them: PO2 / PL2 of ParserTotalConn.v); to
    carry the sizes of the subtrees still to visit across a call, the specifications of ParserTotalNonNamed.v / ParserTotalCalls.v
    also say which child lists a walk leaves alone (everything outside the subtree and its parent) and that the lists of
    following siblings only shrink.  The pool does not grow in these passes.  NOT covered: the resolve loop and
    parseDeferredBlocks (fuel of passes 3 and 4), hence no combined "ParseAML returns".
    (That ParseAML's own fuel suffices is proved for pass 2 only.  The fuel hypothesis below is about the pool these passes START with, i.e. the
    pool AFTER parseDeferredBlocks, which can grow the pool; C12_parse_total_fuel_enough needs pool <= pool0 + 4 * len + 2, the bound
    proved after the first pass, whereas the bound proved after pass 4 is the quadratic one of [fits].  That ParseAML's own fuel
    satisfies 2 * pool <= fuel when passes 5 and 6 start is therefore NOT proved (it does on every input tried, see notes/c12res.md 2b;
    C12_fuel_real_state_nonvacuous instantiates the theorems at a parser-produced pool with ParseAML's fuel).) *)
Theorem C12_parse_total_partial_fuel_resolveMethodCalls :
  forall (fuel : nat) (s : pstate) (g : ghost),
    R (p_tree s) g ->
    (forall i o, TreeSpec.get (p_tree s) i = Some o -> o_opcode o <> opFreed -> opInfo (o_infoIndex o) <> None) ->
    pool_ok (p_tables s) (p_tree s) ->
    (forall i o, TreeSpec.get (p_tree s) i = Some o -> o_opcode o <> opFreed -> o_opcode o = aml_pOpIntNamePathOrMethodCall ->
                 exists tbl sl, o_value o = Some (VBytes tbl sl)) ->
    glive g 0 -> groot g 0 -> (2 * length (t_pool (p_tree s)) <= fuel)%nat ->
    match resolveMethodCalls fuel 0 s with
    | Ok (_, s') => exists g', R (p_tree s') g' /\
        (forall i o, TreeSpec.get (p_tree s') i = Some o -> o_opcode o <> opFreed -> opInfo (o_infoIndex o) <> None) /\
        pool_ok (p_tables s') (p_tree s') /\
        (forall i o, TreeSpec.get (p_tree s') i = Some o -> o_opcode o <> opFreed -> o_opcode o = aml_pOpIntNamePathOrMethodCall ->
                     exists tbl sl, o_value o = Some (VBytes tbl sl)) /\
        glive g' 0 /\ groot g' 0 /\ length (t_pool (p_tree s')) = length (t_pool (p_tree s))
    | Panic => False
    | OutOfFuel => False
    end.
Proof. exact resolveMethodCalls_returns. Qed.
Print Assumptions C12_parse_total_partial_fuel_resolveMethodCalls.

Theorem C12_parse_total_partial_fuel_connectNonNamedObjArgs :
  forall (fuel : nat) (s : pstate) (g : ghost),
    R (p_tree s) g ->
    (forall i o, TreeSpec.get (p_tree s) i = Some o -> o_opcode o <> opFreed -> opInfo (o_infoIndex o) <> None) ->
    pool_ok (p_tables s) (p_tree s) ->
    glive g 0 -> groot g 0 -> (2 * length (t_pool (p_tree s)) <= fuel)%nat ->
    match connectNonNamedObjArgs fuel 0 s with
    | Ok (_, s') => exists g', R (p_tree s') g' /\
        (forall i o, TreeSpec.get (p_tree s') i = Some o -> o_opcode o <> opFreed -> opInfo (o_infoIndex o) <> None) /\
        pool_ok (p_tables s') (p_tree s')
    | Panic => False
    | OutOfFuel => False
    end.
Proof. exact connectNonNamedObjArgs_returns. Qed.
Print Assumptions C12_parse_total_partial_fuel_connectNonNamedObjArgs.

Theorem C12_parse_total_partial_fuel_tail2 :
  forall (f5 f6 : nat) (s : pstate) (g : ghost),
    R (p_tree s) g ->
    (forall i o, TreeSpec.get (p_tree s) i = Some o -> o_opcode o <> opFreed -> opInfo (o_infoIndex o) <> None) ->
    pool_ok (p_tables s) (p_tree s) ->
    (forall i o, TreeSpec.get (p_tree s) i = Some o -> o_opcode o <> opFreed -> o_opcode o = aml_pOpIntNamePathOrMethodCall ->
                 exists tbl sl, o_value o = Some (VBytes tbl sl)) ->
    glive g 0 -> groot g 0 ->
    (2 * length (t_pool (p_tree s)) <= f5)%nat -> (2 * length (t_pool (p_tree s)) <= f6)%nat ->
    match parse_tail2 f5 f6 s with
    | Ok (_, s') => exists g', R (p_tree s') g' /\
        (forall i o, TreeSpec.get (p_tree s') i = Some o -> o_opcode o <> opFreed -> opInfo (o_infoIndex o) <> None) /\
        pool_ok (p_tables s') (p_tree s')
    | Panic => False
    | OutOfFuel => False
    end.
Proof. exact tail2_returns. Qed.
Print Assumptions C12_parse_total_partial_fuel_tail2.

(** NEVER A HANG, the inner loops of the resolve passes (pass 3): they run on their OWN fuel, poolFuel = pool size + 2, and it
    suffices - insideSelf (relocateNamedObjects: the ancestors of the target, one unit per ancestor; the depth of a live object is below
    the pool size) and scopeOf (both passes: the children of the target up to its ScopeBlock, one unit per child) return without a
    state change from any state with [R], valid indexes and slices inside.  (For moveContents the lemma move_all of
    ParserTotalMerge.v demands and gets "number of children < fuel".)  NOT covered: the walks mergeScopeDirectives /
    relocateNamedObjects themselves and the outer loop - a moved object can be visited a second time below its new scope, so the
    subtree-size measure of the other walks does not apply unchanged; see notes/c12res.md. *)
Theorem C12_parse_total_partial_fuel_insideSelf :
  forall (a obj : N) (s : pstate) (g : ghost),
    TI s g -> glive g a ->
    match (mlet pf <~ poolFuel ;; insideSelf_go pf (Some a) obj) s with
    | Ok (_, s') => s' = s
    | Panic => False
    | OutOfFuel => False
    end.
Proof. exact insideSelf_poolFuel. Qed.
Print Assumptions C12_parse_total_partial_fuel_insideSelf.

Theorem C12_parse_total_partial_fuel_scopeOf :
  forall (target : N) (s : pstate) (g : ghost),
    TI s g -> glive g target ->
    match scopeOf target s with
    | Ok (_, s') => s' = s
    | Panic => False
    | OutOfFuel => False
    end.
Proof. exact scopeOf_returns. Qed.
Print Assumptions C12_parse_total_partial_fuel_scopeOf.
