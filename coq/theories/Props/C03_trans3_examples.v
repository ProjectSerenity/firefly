(** Non-vacuity and concrete runs for Props/C03_trans3.v; the regenerated functions are run by vm_compute.
    One available region of 8 frames (0x10..0x17), the kernel in frames 0x11..0x12, the early-boot allocator has handed out
    three frames (0x10, 0x13, 0x14: allocCount 3, lastAllocFrame 0x14); the bitmap allocator has one pool over the region,
    nothing reserved yet. *)
From Coq Require Import NArith String List Lia.
From FF Require Import Lib.GoOps Lib.GoVisit Gen.Consts_mm_pmm Gen.Trans_pmm_bitmap Pmm.Boot Pmm.Bitmap Pmm.BitmapTrans Pmm.BitmapTrans3.
From FF Require Import Props.C03_trans3.
Import ListNotations.
Local Open Scope N_scope.

Definition ex3_entries : list go_multiboot_MemoryMapEntry := [mk_go_multiboot_MemoryMapEntry 0x10000 0x8000 1].
Definition ex3_map : memmap := [mkRegion 0x10000 0x8000 1].
Definition ex3_boot : go_pmm_BootMemAllocator := mk_go_pmm_BootMemAllocator 3 0x14 0x11000 0x12345 0x11 0x12.
Definition ex3_alloc : balloc := mkBA 8 0 [mkPool 0x10 0x17 8 [N.ones 56]].

Example C03_trans3_values : ex3_entries = map to_gr ex3_map /\ ex3_boot = to_gb 0x11000 0x12345 0x11 0x12 (mkB 3 0x14).
Proof. split; reflexivity. Qed.

Example C03_reserveEarlyAllocatorFrames_nonvacuous :
  N.of_nat (length (a_pools ex3_alloc)) < 2 ^ 63 /\ (length (a_pools ex3_alloc) < 10)%nat /\
  b_count (mkB 3 0x14) < 2 ^ 64 /\ (N.to_nat (b_count (mkB 3 0x14)) < 10)%nat.
Proof. repeat split; cbn; lia. Qed.

(** the translated hand-over: the boot allocator is reset and replayed (it ends in the state it had: 3, 0x14), the
    frames 0x10, 0x13, 0x14 are set in the bitmap (bits 63, 60, 59 of word 0), freeCount 5, reservedPages 3 *)
Example C03_trans3_reserve_early_run :
  go_pmm_BitmapAllocator_reserveEarlyAllocatorFrames 10 (to_ga true ex3_alloc []) ex3_boot ex3_entries =
  GOk (to_ga true (mkBA 8 3 [mkPool 0x10 0x17 5 [0x98ffffffffffffff]]) [], ex3_boot).
Proof. vm_compute. reflexivity. Qed.

(** the model's hand-over on the same values, and the theorem instantiated *)
Example C03_trans3_reserve_early_model :
  reserve_early ex3_map 0x11 0x12 ex3_alloc (mkB 3 0x14) = (mkB 3 0x14, Ok (mkBA 8 3 [mkPool 0x10 0x17 5 [0x98ffffffffffffff]])).
Proof. vm_compute. reflexivity. Qed.

Example C03_trans3_reserve_early_at_example :
  go_pmm_BitmapAllocator_reserveEarlyAllocatorFrames 10 (to_ga true ex3_alloc []) (to_gb 0x11000 0x12345 0x11 0x12 (mkB 3 0x14)) (map to_gr ex3_map) =
  match reserve_early ex3_map 0x11 0x12 ex3_alloc (mkB 3 0x14) with
  | (bst', Ok a') => GOk (to_ga true a' [], to_gb 0x11000 0x12345 0x11 0x12 bst')
  | (_, Panic) => GPanic
  | (_, Hang) => GFuel
  end.
Proof.
  destruct C03_reserveEarlyAllocatorFrames_nonvacuous as (H1 & H2 & H3 & H4).
  exact (C03_reserveEarlyAllocatorFrames_is_translation true ex3_alloc [] 0x11000 0x12345 0x11 0x12 (mkB 3 0x14) ex3_map 10 H1 H2 H3 H4).
Qed.

(** the replay starts from the RESET cursor whatever lastAllocFrame was (here a stale 0x99): same frames *)
Example C03_trans3_reset_is_used :
  go_pmm_BitmapAllocator_reserveEarlyAllocatorFrames 10 (to_ga true ex3_alloc [])
    (mk_go_pmm_BootMemAllocator 3 0x99 0x11000 0x12345 0x11 0x12) ex3_entries =
  GOk (to_ga true (mkBA 8 3 [mkPool 0x10 0x17 5 [0x98ffffffffffffff]]) [], ex3_boot).
Proof. vm_compute. reflexivity. Qed.

(** allocCount beyond what the map can give (9 > 6 free frames): the failed allocations return mm.InvalidFrame, which no
    pool contains, markFrame(-1, ..) does nothing; the boot allocator's counter ends at 6 *)
Example C03_trans3_replay_past_exhaustion :
  match go_pmm_BitmapAllocator_reserveEarlyAllocatorFrames 12 (to_ga true ex3_alloc [])
          (mk_go_pmm_BootMemAllocator 9 0 0x11000 0x12345 0x11 0x12) ex3_entries with
  | GOk (g, b) => f_BitmapAllocator_reservedPages g = 6 /\ f_BootMemAllocator_allocCount b = 6 /\ f_BootMemAllocator_lastAllocFrame b = 0x17
  | _ => False
  end.
Proof. vm_compute. repeat split; reflexivity. Qed.

(** fuel: one unit too few is GFuel; a pool whose bitmap is too short makes markFrame panic *)
Example C03_trans3_fuel_and_panic :
  go_pmm_BitmapAllocator_reserveEarlyAllocatorFrames 3 (to_ga true ex3_alloc []) ex3_boot ex3_entries = GFuel /\
  go_pmm_BitmapAllocator_reserveEarlyAllocatorFrames 10 (to_ga true (mkBA 8 0 [mkPool 0x10 0x17 8 []]) []) ex3_boot ex3_entries = GPanic /\
  snd (reserve_early ex3_map 0x11 0x12 (mkBA 8 0 [mkPool 0x10 0x17 8 []]) (mkB 3 0x14)) = Panic.
Proof. vm_compute. repeat split; reflexivity. Qed.

(** ---- BitmapAllocator.init ---- *)
(** an oracle for setupPoolBitmaps that installs the pool of [ex3_alloc] (keeping the trace it was given) and leaves the boot
    allocator as [ex3_boot]; one that fails *)
Definition o_setup_ok (ga : go_pmm_BitmapAllocator) (gb : go_pmm_BootMemAllocator) :=
  (to_ga true ex3_alloc (f_BitmapAllocator_trace ga), ex3_boot, @None string).
Definition o_setup_fail (ga : go_pmm_BitmapAllocator) (gb : go_pmm_BootMemAllocator) :=
  (ga, gb, Some "errSetup"%string).

Definition ga_zero : go_pmm_BitmapAllocator := to_ga true empty_alloc [].
Definition gb_start : go_pmm_BootMemAllocator := mk_go_pmm_BootMemAllocator 0 0 0x11000 0x12345 0x11 0x12.

(** the translated init: setupPoolBitmaps, then the kernel frames 0x11, 0x12 and the early frames 0x10, 0x13, 0x14 are
    reserved (bits 63..59), then printStats; the events are in call order (most recent first) *)
Example C03_trans3_init_run :
  go_pmm_BitmapAllocator_init 10 ga_zero gb_start o_setup_ok ex3_entries =
  GOk (to_ga true (mkBA 8 5 [mkPool 0x10 0x17 3 [0xf8ffffffffffffff]]) [GEv "printStats" []; GEv "setupPoolBitmaps" []],
       (None, ex3_boot)).
Proof. vm_compute. reflexivity. Qed.

(** a failing setupPoolBitmaps: its error is returned, nothing else is called *)
Example C03_trans3_init_setup_error :
  go_pmm_BitmapAllocator_init 10 ga_zero gb_start o_setup_fail ex3_entries =
  GOk (to_ga true empty_alloc [GEv "setupPoolBitmaps" []], (Some "errSetup"%string, gb_start)).
Proof. vm_compute. reflexivity. Qed.

(** the hypotheses of C03_init_is_translation at these values, and the theorem instantiated *)
Example C03_init_is_translation_nonvacuous :
  o_setup_ok (set_f_BitmapAllocator_trace ga_zero (GEv "setupPoolBitmaps" [] :: f_BitmapAllocator_trace ga_zero)) gb_start =
    (to_ga true ex3_alloc [GEv "setupPoolBitmaps" []], to_gb 0x11000 0x12345 0x11 0x12 (mkB 3 0x14), None) /\
  N.of_nat (length (a_pools ex3_alloc)) < 2 ^ 63 /\ (length (a_pools ex3_alloc) < 10)%nat /\
  0x12 < 2 ^ 64 - 1 /\ (N.to_nat (0x12 + 1 - 0x11) < 10)%nat /\
  b_count (mkB 3 0x14) < 2 ^ 64 /\ (N.to_nat (b_count (mkB 3 0x14)) < 10)%nat.
Proof. repeat split; cbn; lia. Qed.

Example C03_trans3_init_at_example :
  go_pmm_BitmapAllocator_init 10 ga_zero gb_start o_setup_ok (map to_gr ex3_map) =
  match init_tail ex3_map 0x11 0x12 ex3_alloc (mkB 3 0x14) with
  | Ok (a2, b') => GOk (to_ga true a2 [GEv "printStats" []; GEv "setupPoolBitmaps" []], (None, to_gb 0x11000 0x12345 0x11 0x12 b'))
  | Panic => GPanic
  | Hang => GFuel
  end.
Proof.
  destruct C03_init_is_translation_nonvacuous as (H0 & H1 & H2 & H3 & H4 & H5 & H6).
  exact (C03_init_is_translation ga_zero gb_start o_setup_ok true ex3_alloc [GEv "setupPoolBitmaps" []]
           0x11000 0x12345 0x11 0x12 (mkB 3 0x14) None ex3_map 10 H0 H1 H2 H3 H4 H5 H6).
Qed.

(** the hypotheses of C03_pmm_init_is_setup_then_tail hold for the map of Props/C01_examples.v (3 pools, one early-boot
    frame): the model's set-up part succeeds, and pmm_init's result is [init_tail]'s *)
From FF Require Import Lib.Word.
From FF Require Props.C01_examples.
Example C03_pmm_init_is_setup_then_tail_nonvacuous :
  let m := C01_examples.pm_map in
  let ks := kernel_start_frame C01_examples.pm_kstart in
  let ke := kernel_end_frame C01_examples.pm_kend in
  let npools := fst (fst (pass1 m 0)) in
  let bytes := required_bytes npools (snd (pass1 m 0)) in
  (two64 <? bytes) = false /\
  (exists b calls, map_pages m ks ke (N.shiftr bytes PageShift) 0 = MGo b calls) /\
  (N.of_nat (length (pass2 m)) =? npools) = true /\
  (bytes <? layout_bytes m npools) = false /\
  match init_tail m ks ke (mkBA (snd (fst (pass1 m 0))) 0 (pass2 m)) (mkB 1 1) with
  | Ok (a, b') => fst C01_examples.pm_init_result = InitOk a b'
  | _ => False
  end.
Proof.
  vm_compute. split; [reflexivity|]. split; [eexists; eexists; reflexivity|]. split; [reflexivity|]. split; reflexivity.
Qed.

(** C03_pmm_init_is_setup_then_tail APPLIED with all four hypotheses discharged together, the boot state [b] being
    the one [map_pages] really ends in (the example above states the hypotheses side by side without linking [b]) *)
Example C03_pmm_init_is_setup_then_tail_real_input :
  let m := C01_examples.pm_map in
  fst (pmm_init m C01_examples.pm_kstart C01_examples.pm_kend two64 0) =
  match init_tail m (kernel_start_frame C01_examples.pm_kstart) (kernel_end_frame C01_examples.pm_kend)
          (mkBA (snd (fst (pass1 m 0))) 0 (pass2 m)) (mkB 1 1) with
  | Ok (a, b') => InitOk a b'
  | Panic => InitPanic
  | Hang => InitHang
  end.
Proof.
  intros m.
  assert (Hm : exists calls, map_pages m (kernel_start_frame C01_examples.pm_kstart) (kernel_end_frame C01_examples.pm_kend)
             (N.shiftr (required_bytes (fst (fst (pass1 m 0))) (snd (pass1 m 0))) PageShift) 0 = MGo (mkB 1 1) calls)
    by (eexists; vm_compute; reflexivity).
  destruct Hm as [calls Hm].
  apply (C03_pmm_init_is_setup_then_tail m C01_examples.pm_kstart C01_examples.pm_kend two64 0 (mkB 1 1) calls).
  - vm_compute. reflexivity.
  - exact Hm.
  - vm_compute. reflexivity.
  - vm_compute. reflexivity.
Qed.
