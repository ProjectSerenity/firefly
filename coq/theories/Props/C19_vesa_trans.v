(** C19 - tie of the VESA framebuffer console model to the source BY TRANSLATION.
    Gen/Trans_console_vesa.v is regenerated on every run by gen/gotrans (extended mode) from
    kernel/device/video/console/vesa_fb.go: VesaFbConsole becomes a record (bpp, bytesPerPixel, fbPhysAddr, the
    []uint8 framebuffer as a list, width, height, offsetY, pitch, colorInfo / font as "is non-nil", widthInChars,
    heightInChars, the palette as the list of its color.RGBA entries, default colours, clear character); Dimensions,
    DefaultColors, fbOffset, packColor16/24, fill8/16/24, Fill, Scroll, write8/16/24 and Write become Gallina
    functions returning [gres] (value / GPanic = index out of range / GFuel = a loop ran out of fuel).  What the code
    reads through the two pointers - cons.font.{GlyphWidth, GlyphHeight, BytesPerRow, Data} and
    cons.colorInfo.{Red,Green,Blue}{MaskSize,Position} - are extra parameters of the translated functions.
    The hand-written model Console/Vesa.v ([fb_offset], [pack_color16/24], [vesa_write], [vesa_fill], [vesa_scroll];
    framebuffer as Console/Mem.v memory, loops on the binary fuel [fuel32] = 2^33), about which the C19 (and C18)
    theorems are proved, is shown equal to that translation for EVERY console [c], framebuffer [m] and arguments:
    whenever the model's run ends - [Ok m'] or [Panic] - the translation with fuel >= fuel32 returns
    [T.to_gs c phys m'] resp. GPanic; under C19's geometry [vesa_wf] the runs end with [Ok]
    ([C19_vesa_trans_no_panic]).  [T.to_gs c phys m]: the record with the model's fields, the table of [load m] over
    0..flen-1 as framebuffer, the palette entries (r, g, b, 255) and the generated constants; [T.fdata c] the table
    of the font's data, [T.fgw/fgh/fbpr c] its glyph width / height / bytes per row (0 / empty without a font).
    [T.bytes_ok c]: the palette components in range and the colour-info mask sizes are bytes (they are uint8 in Go).
    The 32-bit formats with a component in the 4th byte (known finding vesa:32bpp-high-byte-component-dropped) are
    inside these statements: model and code drop that byte alike.
    Statements only; proofs are in Console/VesaTrans.v and Console/VesaTransNoPanic.v. *)
From Coq Require Import NArith PArith String List.
From FF Require Import Lib.Word Lib.GoOps Gen.Consts_device_tty Gen.Consts_device_video_console Gen.Trans_console_vesa.
From FF Require Import Console.Mem Console.Loop Console.Vesa Console.VesaProofs.
From FF Require Console.VesaTrans Console.VesaTransNoPanic.
Module T := FF.Console.VesaTrans.
Local Open Scope N_scope.

Theorem C19_vesa_queries_are_translation :
  forall (c : vesa) (phys : N) (m : fbuf) (dim x y : N),
    go_console_VesaFbConsole_Dimensions (T.to_gs c phys m) dim =
      GOk (T.to_gs c phys m, if dim =? console_Characters then (wchars c, hchars c) else (pw c, ph c)) /\
    go_console_VesaFbConsole_DefaultColors (T.to_gs c phys m) = GOk (T.to_gs c phys m, (vesa_defaultFg, vesa_defaultBg)) /\
    go_console_VesaFbConsole_fbOffset (T.to_gs c phys m) x y = GOk (T.to_gs c phys m, fb_offset c x y).
Proof. exact T.queries_trans. Qed.
Print Assumptions C19_vesa_queries_are_translation.

Theorem C19_vesa_packColor_is_translation :
  forall (c : vesa) (phys : N) (m : fbuf) (idx : N),
    T.bytes_ok c ->
    go_console_VesaFbConsole_packColor16 (T.to_gs c phys m) idx (bsize (cinfo c)) (bpos (cinfo c)) (gsize (cinfo c)) (gpos (cinfo c))
      (rsize (cinfo c)) (rpos (cinfo c)) =
      (if idx <? pal_len c then GOk (T.to_gs c phys m, pack_color16 c idx) else GPanic) /\
    go_console_VesaFbConsole_packColor24 (T.to_gs c phys m) idx (bsize (cinfo c)) (bpos (cinfo c)) (gsize (cinfo c)) (gpos (cinfo c))
      (rsize (cinfo c)) (rpos (cinfo c)) =
      (if idx <? pal_len c then GOk (T.to_gs c phys m, pack_color24 c idx) else GPanic).
Proof. exact T.packColor_trans. Qed.
Print Assumptions C19_vesa_packColor_is_translation.

Theorem C19_vesa_write_is_translation :
  forall (c : vesa) (phys : N) (m : fbuf) (ch fg bg x y : N) (fuel : nat),
    ch < 256 -> T.bytes_ok c -> (Pos.to_nat fuel32 <= fuel)%nat ->
    match vesa_write c m ch fg bg x y with
    | Ok m' =>
        go_console_VesaFbConsole_Write fuel (T.to_gs c phys m) ch fg bg x y (bsize (cinfo c)) (bpos (cinfo c)) (gsize (cinfo c))
          (gpos (cinfo c)) (rsize (cinfo c)) (rpos (cinfo c)) (T.fbpr c) (T.fdata c) (T.fgh c) (T.fgw c) = GOk (T.to_gs c phys m', tt)
    | Panic _ =>
        go_console_VesaFbConsole_Write fuel (T.to_gs c phys m) ch fg bg x y (bsize (cinfo c)) (bpos (cinfo c)) (gsize (cinfo c))
          (gpos (cinfo c)) (rsize (cinfo c)) (rpos (cinfo c)) (T.fbpr c) (T.fdata c) (T.fgh c) (T.fgw c) = GPanic
    | OutOfFuel _ => True
    end.
Proof. intros c phys m ch fg bg x y fuel H0 H1 H2. exact (T.claim_explicit _ _ _ _ (T.write_is_translation c phys m ch fg bg x y fuel H0 H1 H2)). Qed.
Print Assumptions C19_vesa_write_is_translation.

Theorem C19_vesa_fill_is_translation :
  forall (c : vesa) (phys : N) (m : fbuf) (x y width height fg bg : N) (fuel : nat),
    T.bytes_ok c -> (Pos.to_nat fuel32 <= fuel)%nat ->
    match vesa_fill c m x y width height fg bg with
    | Ok m' =>
        go_console_VesaFbConsole_Fill fuel (T.to_gs c phys m) x y width height fg bg (bsize (cinfo c)) (bpos (cinfo c)) (gsize (cinfo c))
          (gpos (cinfo c)) (rsize (cinfo c)) (rpos (cinfo c)) (T.fgh c) (T.fgw c) = GOk (T.to_gs c phys m', tt)
    | Panic _ =>
        go_console_VesaFbConsole_Fill fuel (T.to_gs c phys m) x y width height fg bg (bsize (cinfo c)) (bpos (cinfo c)) (gsize (cinfo c))
          (gpos (cinfo c)) (rsize (cinfo c)) (rpos (cinfo c)) (T.fgh c) (T.fgw c) = GPanic
    | OutOfFuel _ => True
    end.
Proof. intros c phys m x y width height fg bg fuel H1 H2. exact (T.claim_explicit _ _ _ _ (T.fill_is_translation c phys m x y width height fg bg fuel H1 H2)). Qed.
Print Assumptions C19_vesa_fill_is_translation.

Theorem C19_vesa_scroll_is_translation :
  forall (c : vesa) (phys : N) (m : fbuf) (dir lines : N) (fuel : nat),
    (Pos.to_nat fuel32 <= fuel)%nat ->
    match vesa_scroll c m dir lines with
    | Ok m' => go_console_VesaFbConsole_Scroll fuel (T.to_gs c phys m) dir lines (T.fgh c) = GOk (T.to_gs c phys m', tt)
    | Panic _ => go_console_VesaFbConsole_Scroll fuel (T.to_gs c phys m) dir lines (T.fgh c) = GPanic
    | OutOfFuel _ => True
    end.
Proof. intros c phys m dir lines fuel H. exact (T.claim_explicit _ _ _ _ (T.scroll_is_translation c phys m dir lines fuel H)). Qed.
Print Assumptions C19_vesa_scroll_is_translation.

Theorem C19_vesa_trans_no_panic :
  forall (c : vesa) (f : font) (d : depth) (phys : N) (m : fbuf) (fuel : nat),
    vesa_wf c f d m -> T.bytes_ok c -> (Pos.to_nat fuel32 <= fuel)%nat ->
    (forall ch fg bg x y, ch < 256 -> fg < 256 -> bg < 256 -> x < two32 -> y < two32 ->
       exists m', vesa_write c m ch fg bg x y = Ok m' /\ vesa_wf c f d m' /\
         go_console_VesaFbConsole_Write fuel (T.to_gs c phys m) ch fg bg x y (bsize (cinfo c)) (bpos (cinfo c)) (gsize (cinfo c))
           (gpos (cinfo c)) (rsize (cinfo c)) (rpos (cinfo c)) (T.fbpr c) (T.fdata c) (T.fgh c) (T.fgw c) = GOk (T.to_gs c phys m', tt)) /\
    (forall x y width height fg bg, bg < 256 ->
       exists m', vesa_fill c m x y width height fg bg = Ok m' /\ vesa_wf c f d m' /\
         go_console_VesaFbConsole_Fill fuel (T.to_gs c phys m) x y width height fg bg (bsize (cinfo c)) (bpos (cinfo c)) (gsize (cinfo c))
           (gpos (cinfo c)) (rsize (cinfo c)) (rpos (cinfo c)) (T.fgh c) (T.fgw c) = GOk (T.to_gs c phys m', tt)) /\
    (forall dir lines, lines < two32 -> dir = console_ScrollDirUp \/ dir = console_ScrollDirDown ->
       exists m', vesa_scroll c m dir lines = Ok m' /\ vesa_wf c f d m' /\
         go_console_VesaFbConsole_Scroll fuel (T.to_gs c phys m) dir lines (T.fgh c) = GOk (T.to_gs c phys m', tt)).
Proof. exact FF.Console.VesaTransNoPanic.trans_no_panic. Qed.
Print Assumptions C19_vesa_trans_no_panic.
