(** C16 — device bring-up: ordered probing, first console/TTY win, no boot log lost.
    Statements; the proofs are in Kfmt/RingProofs.v, Kfmt/PrefixProofs.v and Hal/HalProofs.v, or a few lines on top of
    [bringup] there.
    Models: Kfmt/Ring.v (ringBuffer.Write/Read, the io.Copy drain of SetOutputSink), Kfmt/Prefix.v
    (PrefixWriter.Write), Hal/Model.v (DetectHardware/probe/onDriverInit/onConsoleInit/
    linkTTYToConsole, Printf, SetOutputSink) on top of Kfmt/Fmt.v; Hal/Spec.v is the sink-agnostic
    description of what is logged and who becomes active. *)
From Coq Require Import NArith ZArith List Permutation Sorted.
From FF Require Import Lib.Word Gen.Consts_kfmt Gen.Hal_strings Kfmt.Fmt Kfmt.Ring Kfmt.RingProofs Kfmt.Prefix Kfmt.PrefixProofs Hal.Model Hal.Spec Hal.HalProofs.
Import ListNotations.
Local Open Scope N_scope.

(** The early buffer is a FIFO that overwrites its oldest bytes: starting from any consistent ring
    (indices below ringBufferSize) holding [contents rb], after any sequence of Write calls the
    io.Copy drain of SetOutputSink delivers exactly the newest [capacity = ringBufferSize-1] bytes of
    (what it held ++ everything written), in order; no step panics or runs out of fuel; afterwards the
    ring is empty and a second drain delivers nothing (each byte is handed over exactly once). *)
Theorem C16_ring_fifo :
  forall (rb : ring) (writes : list (list N)), valid rb ->
    exists rb1 cs rb2,
      ring_writes rb writes = Ok rb1 /\
      drain drain_fuel rb1 = Ok (cs, rb2) /\
      concat cs = lastn capacity (contents rb ++ concat writes) /\
      valid rb2 /\ contents rb2 = [] /\ drain drain_fuel rb2 = Ok ([], rb2).
Proof. exact ring_fifo_any. Qed.
Print Assumptions C16_ring_fifo.

(** the kernel's buffer starts empty and consistent, and its capacity is ringBufferSize-1 *)
Theorem C16_ring_boot : valid empty_ring /\ contents empty_ring = [] /\ capacity = N.to_nat (kfmt_ringBufferSize - 1).
Proof. split; [exact valid_empty|]. split; reflexivity. Qed.
Print Assumptions C16_ring_boot.

(** Probing follows the sorted list: whatever the registration order, if [sorted_list] is what
    sort.Sort leaves — a permutation of the registered drivers in non-decreasing detection order
    (both hypotheses are checked by the harness on every observed run) — then every registered driver
    is probed exactly once, in non-decreasing detection order, DriverInit is called exactly for the
    drivers whose probe found hardware, in that order, and bring-up returns normally. *)
Theorem C16_probe_order :
  forall (logo_off : bool) (registered sorted_list : list driver) (pre post : list logop),
    Permutation registered sorted_list ->
    Sorted (fun a b => (d_order a <= d_order b)%Z) sorted_list ->
    exists st probed,
      scenario pre sorted_list post (set_logo_off init_hal logo_off) = Ok st /\
      probes (h_trace st) = map d_id probed /\
      Permutation registered probed /\
      Sorted (fun a b => (d_order a <= d_order b)%Z) probed /\
      inits (h_trace st) = map d_id (filter (fun d => is_some (d_probe d)) probed).
Proof. exact probe_order. Qed.
Print Assumptions C16_probe_order.

(** Bring-up, for every amount and chunking of log output before and after, every driver list (consoles
    with or without font / logo support) and either setting of consoleLogo on the boot command line:
    the run returns normally (no panic, in particular linkTTYToConsole never meets a nil device) and
    - the active console / terminal are the first console / first terminal (in probe order) whose
      initialisation succeeded; activeDrivers are exactly the drivers that initialised successfully;
    - if both exist: the terminal was attached to that console (once), set active (once), is the
      output sink, the early buffer is empty, no other terminal received anything, and the bytes it
      received are  newest-[capacity](everything logged before the pair was complete) ++ everything
      logged afterwards  — each early byte exactly once, in order, ahead of later output;
    - otherwise no terminal was touched, the sink is still the early buffer and it holds the newest
      [capacity] bytes of everything logged.
    "Everything logged" ([a_early]/[a_later] of Hal/Spec.v) is the output of the Printf calls and, per
    detected driver, its init output and the "initialized" / "init failed: <message>" line, each line
    prefixed by the PrefixWriter model. *)
Theorem C16_bringup :
  forall (logo_off : bool) (pre : list logop) (sorted_list : list driver) (post : list logop),
    exists st a,
      scenario pre sorted_list post (set_logo_off init_hal logo_off) = Ok st /\
      abs_scenario pre sorted_list post init_abs = Ok a /\
      h_console st = first_id is_console sorted_list /\
      h_tty st = first_id is_tty sorted_list /\
      h_active st = map d_id (filter init_ok sorted_list) /\
      match h_console st, h_tty st with
      | Some c, Some t =>
          h_sink st = STTY t /\ contents (h_ring st) = [] /\
          tty_bytes t (h_trace st) = lastn capacity (a_early a) ++ a_later a /\
          other_tty_bytes (Some t) (h_trace st) = [] /\
          attaches (h_trace st) = [(t, c)] /\ states (h_trace st) = [(t, 1)]
      | _, _ =>
          h_sink st = SRing /\ contents (h_ring st) = lastn capacity (a_early a) /\ a_later a = [] /\
          other_tty_bytes None (h_trace st) = [] /\ attaches (h_trace st) = [] /\ states (h_trace st) = []
      end.
Proof.
  intros logo_off pre ds post.
  destruct (bringup logo_off pre ds post) as [st [a (E1 & E2 & HR & _ & _ & Hc & Ht & Ha)]].
  exists st, a. split; [exact E1|]. split; [exact E2|].
  rewrite (R_console _ _ HR), (R_tty _ _ HR), (R_active _ _ HR).
  split; [exact Hc|]. split; [exact Ht|]. split; [exact Ha|]. exact (R_sink _ _ HR).
Qed.
Print Assumptions C16_bringup.

(** A driver whose probe finds nothing or whose initialisation fails never becomes active: it is not
    in activeDrivers and is neither the active console nor the active terminal. *)
Theorem C16_failed_never_active :
  forall (logo_off : bool) (pre : list logop) (sorted_list : list driver) (post : list logop) (st : hal) (d : driver),
    NoDup (map d_id sorted_list) -> In d sorted_list -> init_ok d = false ->
    scenario pre sorted_list post (set_logo_off init_hal logo_off) = Ok st ->
    ~ In (d_id d) (h_active st) /\ h_console st <> Some (d_id d) /\ h_tty st <> Some (d_id d).
Proof. exact failed_never_active_full. Qed.
Print Assumptions C16_failed_never_active.

(** The PrefixWriter: whatever sequence of Write calls carries a text (any chunking, empty writes,
    chunks ending in the middle of a line, the bytesAfterPrefix state carried from earlier calls),
    the sink receives the text with the prefix in front of the first byte of every line, and the
    writer ends "at the beginning of a line" exactly when the text ended with a newline. *)
Theorem C16_prefix_stream :
  forall (prefix : list N) (writes : list (list N)) (bap : N),
    concat (fst (prefix_writes prefix bap writes)) = inject prefix (bap =? 0) (concat writes) /\
    (snd (prefix_writes prefix bap writes) =? 0) = ends_line (bap =? 0) (concat writes).
Proof. exact prefix_writes_spec. Qed.
Print Assumptions C16_prefix_stream.

(** A driver whose initialisation fails is reported on the log: what its processing adds to the log is,
    prefixed per line with Fprintf("[hal] %s(%d.%d.%d): ", name, version), its own init output followed
    by Fprintf(<the failure format of probe()>, message); it is added to the early or the later part of
    the log and nothing else changes (the format strings are regenerated from hal.go; with today's
    strings the line reads "[hal] x(1.2.3): init failed: boom", see C16_examples). *)
Theorem C16_failed_reported :
  forall (d : driver) (p : probed) (msg : list N) (a : abs) (bap : N),
    d_probe d = Some p -> p_init_err p = Some msg -> length (a_numbuf a) = N.to_nat kfmt_numFmtBufLen ->
    exists prefix status nb nb1 bap',
      written (fprintf hal_prefixFmt [AStr (p_name p); AInt U16 (p_major p); AInt U16 (p_minor p); AInt U16 (p_patch p)] (a_numbuf a)) = Ok prefix /\
      written (fprintf hal_failFmt [AStr msg] nb1) = Ok status /\
      abs_probe_one d a bap =
        Ok (abs_log (abs_numbuf a nb) (inject prefix (bap =? 0) (concat (p_log p) ++ status)), bap').
Proof. exact failed_reported. Qed.
Print Assumptions C16_failed_reported.
