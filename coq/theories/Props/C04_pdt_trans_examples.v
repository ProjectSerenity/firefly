(** Non-vacuity of the theorems of Props/C04_pdt_trans.v and concrete runs of the regenerated translation
    (Gen/Trans_vmm_pdt.v) by [vm_compute] at reachable states: the boot state of a case (arena of 64 frames from
    0x100, root 0x100 with its recursive entry, allocator handing out 0x101..), an inactive table initialised in
    frame 0x120, a mapping in it, its removal, activation; the panic of a stray access; and the one input class on
    which the hand-written [pdt_init] and the Go code differ (Init of a live page table). *)
From Coq Require Import NArith String List Bool.
From FF Require Import Lib.Word Lib.GoOps Gen.Consts_mm_vmm Gen.Trans_vmm_pdt Vmm.Pt Vmm.PtMem.
From FF Require Vmm.PdtTrans.
Module T := FF.Vmm.PdtTrans.
Import ListNotations.
Local Open Scope N_scope.

Definition boot : st := init_state 0x100 64 0 [0x101; 0x102; 0x103; 0x104; 0x105; 0x106; 0x107; 0x108].
Definition F : N := 0x120.          (* frame of the new, inactive table; kept in slot 0 *)
Definition PG : N := 0x7f0000123.   (* a page in the low canonical half *)
Definition LEA : N := 0x100ff8.     (* physical address of entry 511 of the active root 0x100 *)

(** what the examples observe of a result: error, trace, digest of the whole memory, entry 511 of the boot root *)
Definition obs {A} (r : gres (go_vmm_world * A)) : option (A * list gcall * N * N) :=
  match r with
  | GOk (w, a) => Some (a, f_world_trace w, digest (f_world_mem w), rd (mem (f_world_mem w)) 0x100 511)
  | _ => None
  end.
Definition mobs (r : R (st * N)) : option (N * N * N) :=
  match r with Ok (s', e) => Some (e, digest s', rd (mem s') 0x100 511) | Stray => None end.
Definition st_of (r : R (st * N)) : st := match r with Ok (s', _) => s' | Stray => boot end.

(** ---- Init ---- *)
Example C04_pdt_init_is_translation_nonvacuous : F < two64 /\ T.init_stable F (set_pdt boot 0 F).
Proof.
  split; [reflexivity|].
  intros s1 pf Emt Erp.
  vm_compute in Emt. injection Emt as <-.
  vm_compute in Erp. injection Erp as <-.
  vm_compute. reflexivity.
Qed.

Example init_run :
  obs (go_vmm_PageDirectoryTable_Init (mk_go_vmm_world [] (set_pdt boot 0 F)) 0 F T.o_active T.o_memset T.o_maptemp T.o_unmap)
  = Some ((None, F),
          [T.ev_unmap temp_page; T.ev_memset (frame_addr temp_page); T.ev_maptemp F; T.ev_active],
          digest (st_of (pdt_init 0 F boot)), 0x100003)
  /\ mobs (pdt_init 0 F boot) = Some (0, digest (st_of (pdt_init 0 F boot)), 0x100003).
Proof.
  (* named, the model's run is evaluated once for its three occurrences *)
  set (r := pdt_init 0 F boot). vm_compute. split; reflexivity.
Qed.

(** Init of the active root: only the receiver is written *)
Example init_active_run :
  obs (go_vmm_PageDirectoryTable_Init (mk_go_vmm_world [] (set_pdt boot 1 0x100)) 0 0x100 T.o_active T.o_memset T.o_maptemp T.o_unmap)
  = Some ((None, 0x100), [T.ev_active], digest boot, 0x100003).
Proof. vm_compute. reflexivity. Qed.

(** ---- Map / Unmap on the inactive table ---- *)
Definition s1 : st := st_of (pdt_init 0 F boot).

Example C04_pdt_map_is_translation_nonvacuous :
  T.mem_w64 s1 /\ cr3 s1 < two64 /\ pdts s1 0 < two64 /\ (3 : N) < two64 /\ pdts s1 0 = F /\ cr3 s1 = 0x100000.
Proof.
  split; [|vm_compute; repeat split; reflexivity].
  unfold s1. destruct (pdt_init 0 F boot) as [[s' e]|] eqn:E; cbn [st_of].
  - apply (T.pdt_init_keeps _ _ _ _ _ E). apply T.init_state_w64. reflexivity.
  - apply T.init_state_w64. reflexivity.
Qed.

(** the inactive Map: slot 511 of the active root is borrowed (flush), mapFn runs, the slot is handed back (flush);
    entry 511 of the active root is what it was, and the result is the model's *)
Example map_inactive_run :
  obs (go_vmm_PageDirectoryTable_Map (mk_go_vmm_world [] s1) F PG 0x4242 3 T.o_active T.o_flush T.o_map)
  = Some (None, [T.ev_flush LEA; T.ev_map PG 0x4242 3; T.ev_flush LEA; T.ev_active],
          digest (st_of (pdt_map 0 PG 0x4242 3 s1)), 0x100003)
  /\ mobs (pdt_map 0 PG 0x4242 3 s1) = Some (0, digest (st_of (pdt_map 0 PG 0x4242 3 s1)), 0x100003)
  /\ digest (st_of (pdt_map 0 PG 0x4242 3 s1)) <> digest s1.
Proof. set (r := pdt_map 0 PG 0x4242 3 s1). vm_compute. repeat split; try reflexivity. discriminate. Qed.

Definition s2 : st := st_of (pdt_map 0 PG 0x4242 3 s1).

Example C04_pdt_unmap_is_translation_nonvacuous : T.mem_w64 s2 /\ cr3 s2 < two64 /\ pdts s2 0 < two64.
Proof.
  split; [|vm_compute; split; reflexivity].
  assert (H1 : T.mem_w64 s1) by apply C04_pdt_map_is_translation_nonvacuous.
  unfold s2. destruct (pdt_map 0 PG 0x4242 3 s1) as [[s' e]|] eqn:E; cbn [st_of].
  - refine (proj2 (proj2 (T.pdt_map_keeps 0 PG 0x4242 3 s1 s' e _ E)) H1). reflexivity.
  - apply T.init_state_w64. reflexivity.
Qed.

Example unmap_inactive_run :
  obs (go_vmm_PageDirectoryTable_Unmap (mk_go_vmm_world [] s2) F PG T.o_active T.o_flush T.o_unmap)
  = Some (None, [T.ev_flush LEA; T.ev_unmap PG; T.ev_flush LEA; T.ev_active],
          digest (st_of (pdt_unmap 0 PG s2)), 0x100003)
  /\ mobs (pdt_unmap 0 PG s2) = Some (0, digest (st_of (pdt_unmap 0 PG s2)), 0x100003).
Proof. set (r := pdt_unmap 0 PG s2). vm_compute. split; reflexivity. Qed.

(** Unmap of a page whose upper tables do not exist: ErrInvalidMapping comes back, the slot is still handed back *)
Example unmap_unmapped_run :
  obs (go_vmm_PageDirectoryTable_Unmap (mk_go_vmm_world [] s1) F PG T.o_active T.o_flush T.o_unmap)
  = Some (Some "ErrInvalidMapping"%string, [T.ev_flush LEA; T.ev_unmap PG; T.ev_flush LEA; T.ev_active], digest s1, 0x100003).
Proof. vm_compute. reflexivity. Qed.

(** Map on the ACTIVE table (receiver = the active root): no borrowing, no extra flush *)
Example map_active_run :
  obs (go_vmm_PageDirectoryTable_Map (mk_go_vmm_world [] s1) 0x100 PG 0x4242 3 T.o_active T.o_flush T.o_map)
  = Some (None, [T.ev_map PG 0x4242 3; T.ev_active], digest (st_of (map_page PG 0x4242 3 s1)), 0x100003).
Proof. vm_compute. reflexivity. Qed.

(** allocator exhausted inside mapFn: the error is returned AFTER the slot has been handed back *)
Example map_inactive_alloc_failure_run :
  obs (go_vmm_PageDirectoryTable_Map (mk_go_vmm_world [] (set_orc s1 [])) F PG 0x4242 3 T.o_active T.o_flush T.o_map)
  = Some (Some "errAllocFrame"%string, [T.ev_flush LEA; T.ev_map PG 0x4242 3; T.ev_flush LEA; T.ev_active],
          digest s1, 0x100003).
Proof. vm_compute. reflexivity. Qed.

(** a stray access: cr3 names a frame outside the backed arena, so the raw-pointer store into its slot 511 cannot be
    resolved: the translation panics where the model reports Stray *)
Example map_stray_run :
  go_vmm_PageDirectoryTable_Map (mk_go_vmm_world [] (set_cr3 s1 0x5000000)) F PG 0x4242 3 T.o_active T.o_flush T.o_map = GPanic
  /\ pdt_map 0 PG 0x4242 3 (set_cr3 s1 0x5000000) = Stray.
Proof. vm_compute. split; reflexivity. Qed.

(** ---- Activate ---- *)
Example C04_pdt_activate_is_translation_nonvacuous : pdts s1 0 < two64.
Proof. vm_compute. reflexivity. Qed.

Example activate_run :
  match go_vmm_PageDirectoryTable_Activate (mk_go_vmm_world [] s1) F T.o_switch with
  | GOk (w, _) => Some (f_world_trace w, cr3 (f_world_mem w), slog (f_world_mem w))
  | _ => None
  end = Some ([T.ev_switch 0x120000], 0x120000, [0x120000]).
Proof. vm_compute. reflexivity. Qed.

(** ---- where the hand-written model and the Go code differ ----
    In [s3] the temporary page has been mapped once, so its page table (level 3) lives in frame 0x103.  Init of THAT
    frame maps the temporary page onto its own page table; kernel.Memset then clears the table, and the next
    dereference of the pointer (the store of 0) cannot be resolved: the translation - like the hardware - faults, while
    [pdt_init], which resolved the address once before the Memset, reports success.  [init_stable] excludes it. *)
Definition s3 : st := match map_temporary 0x130 boot with Ok (s', _, _) => s' | Stray => boot end.

Example init_live_table_differs :
  go_vmm_PageDirectoryTable_Init (mk_go_vmm_world [] (set_pdt s3 0 0x103)) 0 0x103 T.o_active T.o_memset T.o_maptemp T.o_unmap = GPanic
  /\ (match pdt_init 0 0x103 s3 with Ok (_, e) => Some e | Stray => None end) = Some 0
  /\ ~ T.init_stable 0x103 (set_pdt s3 0 0x103).
Proof.
  split; [vm_compute; reflexivity|]. split; [vm_compute; reflexivity|].
  intros H.
  assert (E : exists s', map_temporary 0x103 (set_pdt s3 0 0x103) = Ok (s', 0, temp_page) /\
                         resolve_page s' (frame_addr temp_page) = Some 0x103 /\
                         T.path_avoids s' (frame_addr temp_page) 0x103 = false).
  { eexists. split; [vm_compute; reflexivity|]. split; vm_compute; reflexivity. }
  destruct E as (s' & E1 & E2 & E3). rewrite (H s' _ E1 E2) in E3. discriminate.
Qed.

(** ---- the general corollary: its hypotheses hold for the boot state and frame F ---- *)
From FF Require Vmm.PtInit Vmm.PtMap.
Lemma boot_inv : PtMap.Inv boot 0x100 0x100 (PtInit.own_root 0x100).
Proof.
  apply PtInit.Inv_init; [reflexivity | vm_compute; discriminate | |].
  - vm_compute. repeat constructor; cbn; intuition discriminate.
  - intros f Hin Hz. cbn in Hin. repeat (destruct Hin as [<-|Hin]; [vm_compute; split; reflexivity|]). destruct Hin.
Qed.

Example C04_pdt_init_is_translation_inv_nonvacuous :
  PtMap.Inv boot 0x100 0x100 (PtInit.own_root 0x100) /\ (prot boot && (F =? zf boot)) = false /\ backed boot F = true /\
  PtInit.own_root 0x100 F = None /\ ~ In F (orc boot).
Proof.
  split; [exact boot_inv|]. repeat split; try reflexivity.
  cbn. intuition discriminate.
Qed.

(** C04_pdt_trans_keeps_w64 - its hypothesis holds at the boot state and the premises of both conjuncts are met
    by real runs (a mapping from the boot state, its removal), so the conclusion is used, not vacuously true *)
Example C04_pdt_trans_keeps_w64_nonvacuous :
  T.mem_w64 boot /\ (3 : N) < two64 /\
  (exists s' e, map_page PG 0x4242 3 boot = Ok (s', e) /\ e = 0 /\ T.mem_w64 s' /\
     exists s'' e', unmap_page PG s' = Ok (s'', e') /\ e' = 0 /\ T.mem_w64 s'').
Proof.
  assert (Hb : T.mem_w64 boot) by (apply T.init_state_w64; reflexivity).
  split; [exact Hb|]. split; [reflexivity|].
  assert (H : match map_page PG 0x4242 3 boot with
              | Ok (s', e) => e = 0 /\ match unmap_page PG s' with Ok (_, e') => e' = 0 | Stray => False end
              | Stray => False
              end) by (vm_compute; split; reflexivity).
  destruct (map_page PG 0x4242 3 boot) as [[s' e]|] eqn:E; [|contradiction]. destruct H as [-> H].
  destruct (unmap_page PG s') as [[s'' e']|] eqn:E2; [|contradiction]. subst e'.
  assert (Hw : T.mem_w64 s') by (exact (proj1 (T.trans_keeps_w64 boot s' 0 Hb) PG 0x4242 3 eq_refl E)).
  exists s', 0. split; [reflexivity|]. split; [reflexivity|]. split; [exact Hw|].
  exists s'', 0. split; [exact E2|]. split; [reflexivity|].
  exact (proj2 (T.trans_keeps_w64 s' s'' 0 Hw) PG E2).
Qed.
