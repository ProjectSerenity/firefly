(** Non-vacuity for C09: a concrete disciplined program (a two-step non-atomic increment of a shared
    counter under the mutex, returning the value it wrote), and a concrete interleaving of two tasks. *)
From Coq Require Import List Arith Bool Lia String.
From FF Require Import Sync.Skel Sync.SkelProofs Sync.Serial Sync.SerialProofs.
Import ListNotations.

(* local state: program counter and the value read *)
Inductive pc := P0 | P1 | P2 (v : nat) | P3 (v : nat) | P4 (v : nat) | P5.

Definition code (l : pc) : @action nat pc nat :=
  match l with
  | P0 => AAcq P1
  | P1 => AShared (fun s => (s, P2 s))            (* read the counter *)
  | P2 v => AShared (fun s => (v + 1, P3 (v + 1)))  (* write it back incremented *)
  | P3 v => ARel (P4 v)
  | P4 v => ADone v P5
  | P5 => AStop
  end.

Definition holds (l : pc) : bool := match l with P1 | P2 _ | P3 _ => true | _ => false end.

Example C09_disciplined_nonvacuous : disciplined code holds.
Proof.
  constructor.
  - intros [] l' H; cbn in H; try discriminate. injection H as <-. auto.
  - intros [] l' H; cbn in H; try discriminate. injection H as <-. auto.
  - intros [] f H; cbn in H; try discriminate; injection H as <-; auto.
  - intros [] l' H; cbn in H; discriminate.
  - intros [] r l' H; cbn in H; try discriminate. injection H as <- <-. auto.
Qed.

Definition g0 : @st nat pc nat := {| sh := 0; owner := None; loc := fun _ => P0; hist := [] |}.

Example C09_initial_nonvacuous : initial holds g0.
Proof. split; auto. Qed.

(* [cstep] on states written out field by field: a run built with these mentions each field of a state
   once, where the constructors themselves repeat the whole previous state in every field of the next. *)
Section Steps.
  Context {S L R : Type} (code : L -> @action S L R).
  Variables (s : S) (w : option nat) (l : nat -> L) (h : list (nat * R)) (t : nat).

  Lemma acq_step l' : code (l t) = AAcq l' ->
    cstep code {| sh := s; owner := None; loc := l; hist := h |}
      {| sh := s; owner := Some t; loc := upd l t l'; hist := h |}.
  Proof. intros E. exact (CAcq code {| sh := s; owner := None; loc := l; hist := h |} t l' E eq_refl). Qed.

  Lemma rel_step l' : code (l t) = ARel l' ->
    cstep code {| sh := s; owner := w; loc := l; hist := h |}
      {| sh := s; owner := None; loc := upd l t l'; hist := h |}.
  Proof. exact (CRel code {| sh := s; owner := w; loc := l; hist := h |} t l'). Qed.

  Lemma shared_step f : code (l t) = AShared f ->
    cstep code {| sh := s; owner := w; loc := l; hist := h |}
      {| sh := fst (f s); owner := w; loc := upd l t (snd (f s)); hist := h |}.
  Proof. exact (CShared code {| sh := s; owner := w; loc := l; hist := h |} t f). Qed.

  Lemma done_step r l' : code (l t) = ADone r l' ->
    cstep code {| sh := s; owner := w; loc := l; hist := h |}
      {| sh := s; owner := w; loc := upd l t l'; hist := h ++ [(t, r)] |}.
  Proof. exact (CDone code {| sh := s; owner := w; loc := l; hist := h |} t r l'). Qed.
End Steps.

(* task 0 acquires, task 1 cannot; task 0 reads, writes, releases; task 1 acquires *)
Example C09_interleaving_nonvacuous :
  exists g, star (cstep code) g0 g /\ sh g = 1 /\ owner g = Some 1 /\ loc g 0 = P4 1.
Proof.
  eexists. split.
  - eapply star_step. eapply star_step. eapply star_step. eapply star_step. eapply star_step. apply star_refl.
    + apply (acq_step code _ _ _ 0 P1); reflexivity.
    + apply (shared_step code _ _ _ _ 0 (fun s => (s, P2 s))); reflexivity.
    + apply (shared_step code _ _ _ _ 0 (fun s => (1, P3 1))); reflexivity.
    + apply (rel_step code _ _ _ _ 0 (P4 1)); reflexivity.
    + apply (acq_step code _ _ _ 1 P1); reflexivity.
  - cbn. auto.
Qed.

(* a skeleton with a path that returns while holding the mutex is rejected; a correct one is accepted *)
Example C09_checker_rejects_leak :
  well_bracketed (KSeq KAcq (KSeq (KIf (KShared "x") (KReturn KSkip) KSkip) (KSeq KRel (KReturn KSkip)))) = false.
Proof. reflexivity. Qed.

Example C09_checker_rejects_unprotected :
  well_bracketed (KSeq (KShared "x") (KSeq KAcq (KSeq KRel (KReturn KSkip)))) = false.
Proof. reflexivity. Qed.

Example C09_checker_accepts :
  well_bracketed (KSeq KAcq (KSeq (KLoop KSkip (KIf (KShared "x") (KSeq KRel (KReturn KSkip)) KContinue) KSkip) (KSeq KRel (KReturn KSkip)))) = true.
Proof. reflexivity. Qed.

(** ---- non-vacuity of the instantiated theorem: the initialised allocator of Props/C01_examples.v, two
    callers that each allocate one frame, interleaved; both get different frames ---- *)
From Coq Require Import NArith.
From FF Require Import Pmm.Bitmap Pmm.TopProofs Sync.AllocTasks Sync.AllocTasksProofs Props.C01_examples.

Definition plan2 (t : nat) : list op := match t with 0 | 1 => [OpAlloc] | _ => [] end.

Example C09_plan_nonvacuous : forall t, history_ok pm_map pm_kstart pm_kend (early_frames (snd pm_init_result)) (plan2 t).
Proof. intros [|[|t]] f Hf; cbn in Hf; try contradiction; destruct Hf as [Hf|[]]; discriminate. Qed.

(* the four steps of one call of [AllocTasks.code], with the allocator a variable *)
Section Call.
  Variables (a : balloc) (w : option nat) (l : nat -> tl) (h : list (nat * res)) (t : nat) (ops : list op).

  Lemma call_acq o : l t = {| todo := o :: ops; ph := PIdle |} ->
    cstep AllocTasks.code {| sh := a; owner := None; loc := l; hist := h |}
      {| sh := a; owner := Some t; loc := upd l t {| todo := ops; ph := PIn o |}; hist := h |}.
  Proof. intros E. apply acq_step. unfold AllocTasks.code. rewrite E. reflexivity. Qed.

  Lemma call_in o : l t = {| todo := ops; ph := PIn o |} ->
    cstep AllocTasks.code {| sh := a; owner := w; loc := l; hist := h |}
      {| sh := fst (step a o); owner := w; loc := upd l t {| todo := ops; ph := POut (snd (step a o)) |}; hist := h |}.
  Proof.
    intros E. apply (shared_step _ _ _ _ _ _ (fun a => (fst (step a o), {| todo := ops; ph := POut (snd (step a o)) |}))).
    unfold AllocTasks.code. rewrite E. reflexivity.
  Qed.

  Lemma call_out r : l t = {| todo := ops; ph := POut r |} ->
    cstep AllocTasks.code {| sh := a; owner := w; loc := l; hist := h |}
      {| sh := a; owner := None; loc := upd l t {| todo := ops; ph := PRet r |}; hist := h |}.
  Proof. intros E. apply rel_step. unfold AllocTasks.code. rewrite E. reflexivity. Qed.

  Lemma call_ret r : l t = {| todo := ops; ph := PRet r |} ->
    cstep AllocTasks.code {| sh := a; owner := w; loc := l; hist := h |}
      {| sh := a; owner := w; loc := upd l t {| todo := ops; ph := PIdle |}; hist := h ++ [(t, r)] |}.
  Proof. intros E. apply done_step. unfold AllocTasks.code. rewrite E. reflexivity. Qed.
End Call.

(* task 0 makes its call; task 1 allocates before task 0 has returned; both get what the serial run
   gives them, for every allocator *)
Lemma two_callers_run a : exists g,
  star (cstep AllocTasks.code) (start a plan2) g /\ owner g = None /\
  hist g = [(0, snd (step a OpAlloc)); (1, snd (step (fst (step a OpAlloc)) OpAlloc))].
Proof.
  eexists. split; [|split].
  - eapply star_step. eapply star_step. eapply star_step. eapply star_step.
    eapply star_step. eapply star_step. eapply star_step. eapply star_step. apply star_refl.
    + apply (call_acq _ _ _ 0 []); reflexivity.
    + apply (call_in _ _ _ _ 0 []); reflexivity.
    + apply (call_out _ _ _ _ 0 []); reflexivity.
    + apply (call_acq _ _ _ 1 []); reflexivity.
    + apply (call_in _ _ _ _ 1 []); reflexivity.
    + apply (call_ret _ _ _ _ 0 []); reflexivity.
    + apply (call_out _ _ _ _ 1 []); reflexivity.
    + apply (call_ret _ _ _ _ 1 []); reflexivity.
  - reflexivity.
  - reflexivity.
Qed.

Example C09_two_callers_nonvacuous :
  exists g, star (cstep AllocTasks.code) (start pm_a0 plan2) g /\ owner g = None /\
            exists f1 f2, hist g = [(0, RAlloc (Some f1)); (1, RAlloc (Some f2))] /\ f1 <> f2.
Proof.
  destruct (two_callers_run pm_a0) as (g & Hrun & Hown & Hhist).
  exists g. split; [exact Hrun|]. split; [exact Hown|].
  exists 2%N, 6%N. split; [|discriminate]. rewrite Hhist. vm_compute. reflexivity.
Qed.
