(** C17 — the terminal emulator's state always matches the reference terminal.
    Statements; the proofs are a few lines on top of the simulation lemmas of Tty/VtProofs.v ([boot_sim], [step_sim],
    [write_sim]) and the loop lemmas of Tty/VtLoops.v.

    Model: Tty/Vt.v (vt.go with uint32/uint wrap-around and bounds-checked buffer accesses,
    [PanicOOB] = Go run-time panic).  Reference terminal: Tty/VtSpec.v ([h+sb] lines of [w] cells,
    viewport, cursor; CR, LF, BS, TAB, printable bytes, wrap, viewport moving through the
    scrollback and then scrolling), written from the property text. *)
From Coq Require Import NArith List.
From FF Require Import Lib.Word Gen.Consts_device_tty Tty.Vt Tty.VtSpec Tty.VtProofs Tty.VtLoops.
Import ListNotations.
Local Open Scope N_scope.

(** For every console geometry [w, h >= 1] (1x1, one column, one row included), every scrollback
    [sb >= 0], every tab width [0..255], every pair of default colours, with the buffer size
    [w*(h+sb)*3] representable in 32 bits, and for every history of API calls made after
    [NewVT(tab, sb)] and [AttachTo(console)] — [Write] of any byte string, [WriteByte],
    [SetCursorPosition] with any 32-bit coordinates, [SetState] with any state byte — the model
    does not panic and the terminal it ends in, read as lines of cells + viewport + cursor
    ([abs]), IS the reference terminal after the same history: same contents in every cell of
    viewport and scrollback, same viewport position, same cursor. *)
Theorem C17_vt_refines :
  forall w h sb tab fg bg (ops : list op),
    1 <= w -> 1 <= h -> tab <= 255 -> w * (h + sb) * 3 < two32 -> Forall op_wf ops ->
    exists v0 v,
      attach (new_vt tab sb) w h fg bg = Ok v0 /\
      run_ops v0 ops = Ok v /\
      abs v = ref_run w h sb tab fg bg ops.
Proof. exact vt_refines_thm. Qed.
Print Assumptions C17_vt_refines.

(** Under the same hypotheses no bounds-checked access ever fails ([run_ops] returns [Ok]: no
    [PanicOOB], i.e. no store or load outside the terminal's buffer), the invariant [InvVT] of
    DESIGN.md A.4 holds after every history — in particular the cursor is inside the viewport,
    the viewport is inside the buffer, the buffer keeps its size, and the three bytes the next
    store would touch ([dataOffset .. dataOffset+2]) lie inside the buffer.  Every prefix of a
    history is a history, so this holds at every point. *)
Theorem C17_vt_in_bounds :
  forall w h sb tab fg bg (ops : list op),
    1 <= w -> 1 <= h -> tab <= 255 -> w * (h + sb) * 3 < two32 -> Forall op_wf ops ->
    exists v0 v,
      attach (new_vt tab sb) w h fg bg = Ok v0 /\
      run_ops v0 ops = Ok v /\
      InvVT w h sb tab fg bg v /\
      1 <= cx v <= w /\ 1 <= cy v <= h /\ vy v + h <= h + sb /\
      length (data v) = N.to_nat (w * (h + sb) * 3) /\
      doff v + 2 < N.of_nat (length (data v)).
Proof.
  intros w h sb tab fg bg ops Hw Hh _ Hsz WF.
  destruct (boot_sim w h sb tab fg bg Hw Hh Hsz ops WF) as (v0 & v & E0 & E & I & _).
  exact (ex_intro _ v0 (ex_intro _ v (conj E0 (conj E (conj I (inv_in_bounds w h sb tab fg bg Hw Hh Hsz v I)))))).
Qed.
Print Assumptions C17_vt_in_bounds.

(** The same, for one API call from any state satisfying the invariant (what the induction
    uses): the call succeeds, re-establishes the invariant, and commutes with the reference
    terminal's step. *)
Theorem C17_step :
  forall w h sb tab fg bg (v : vt) (r : rterm) (o : op),
    1 <= w -> 1 <= h -> w * (h + sb) * 3 < two32 ->
    InvVT w h sb tab fg bg v -> R w h sb v r -> op_wf o ->
    exists v' res,
      step v o = Ok (v', res) /\ InvVT w h sb tab fg bg v' /\
      R w h sb v' (r_step w h sb tab fg bg r o) /\ abs v' = r_step w h sb tab fg bg r o.
Proof.
  intros w h sb tab fg bg v r o Hw Hh Hsz I RR WF.
  destruct (step_sim w h sb tab fg bg Hw Hh Hsz v r o I RR WF) as (v' & res & E & I' & R' & _).
  exact (ex_intro _ v' (ex_intro _ res (conj E (conj I' (conj R'
           (R_abs w h sb tab fg bg Hw Hh Hsz v' _ (proj1 I') R')))))).
Qed.
Print Assumptions C17_step.

(** Write reports every byte as written and no error (the terminal is attached). *)
Theorem C17_write_result :
  forall w h sb tab fg bg (v : vt) (r : rterm) (bs : list N),
    1 <= w -> 1 <= h -> w * (h + sb) * 3 < two32 ->
    InvVT w h sb tab fg bg v -> R w h sb v r ->
    exists v', write v bs 0 = Ok (v', N.of_nat (length bs), 0).
Proof.
  intros w h sb tab fg bg v r bs Hw Hh Hsz I RR.
  destruct (write_sim w h sb tab fg bg Hw Hh Hsz bs v r 0 I RR) as (v' & E & _). now exists v'.
Qed.
Print Assumptions C17_write_result.

(** The model summarises the two byte loops of the scroll branch of lf and the fill loop of AttachTo
    as one pass over the buffer (so that the extracted model can run long histories).  The
    summaries are the loops: [copy_loop] / [blank_loop] (Tty/VtLoops.v) perform the stores of the Go
    loops one by one with bounds checks, with as much fuel as the Go loop makes iterations; the
    equalities include the cases where the loop panics part-way. *)
Theorem C17_scroll_copy_is_loop :
  forall d s e stride, copy_down d s e stride = copy_loop (N.to_nat (e - s)) d s e stride.
Proof. exact copy_down_is_loop. Qed.
Print Assumptions C17_scroll_copy_is_loop.

Theorem C17_scroll_blank_is_loop :
  forall d e stride fg bg,
    blank_range d e stride fg bg = blank_loop (N.to_nat ((stride + 2) / 3)) d e (e + stride) fg bg.
Proof. exact blank_range_is_loop. Qed.
Print Assumptions C17_scroll_blank_is_loop.

Theorem C17_attach_fill_is_loop :
  forall len fg bg,
    blank_loop (N.to_nat ((len + 2) / 3)) (repeat 0 (N.to_nat len)) 0 len fg bg =
    if len mod 3 =? 0 then Some (blank_cells (len / 3) fg bg) else None.
Proof. exact attach_fill_is_loop. Qed.
Print Assumptions C17_attach_fill_is_loop.
