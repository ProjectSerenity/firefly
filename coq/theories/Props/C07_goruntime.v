(** C07 for kernel/goruntime/bootstrap.go - sysReserve / sysMap / sysAlloc (model: Goruntime/Boot.v; the
    model of the code as it stands is [chk = true], see the head of that file).  Also C06's clause "the zero
    frame can never be mapped writable" for sysMap's requests.
    Statements only; the proofs are a step or two from the lemmas of Goruntime/BootProofs.v.  The reservation theorems
    are COMPOSED with Props/C07.v (the history of reservations of a sysReserve/sysAlloc history is a history
    of EarlyReserveRegion reservations, to which C07_reserve_history applies) - nothing is proved twice. *)
From Coq Require Import NArith List Bool.
From FF Require Import Lib.Word Gen.Consts_mm_vmm Vmm.Region Vmm.RegionProofs Goruntime.Boot Goruntime.BootProofs.
Import ListNotations.
Local Open Scope N_scope.

(** For EVERY history of sysReserve / sysMap / sysAlloc calls (any 64-bit sizes and addresses, any scripted
    allocator answers, a mapFn failure anywhere), started from any page-aligned cursor at or below the
    temporary-mapping page: the regions the calls obtain - (address, bytes reserved, bytes requested), as
    reported by the calls themselves - are exactly the regions of the EarlyReserveRegion history with the
    same sizes; hence (C07_reserve_history) each is page aligned, a whole number of pages, at least as large
    as requested and less than a page larger, below the temporary-mapping page and entirely below every
    region obtained before it.  This includes the region that stays reserved when sysAlloc fails later on. *)
Theorem C07_rt_reserve_history :
  forall (zf l0 stat : N) (ops : list rop),
    WFstart l0 -> Forall WFrop ops ->
    let regs := rt_regions zf (l0, stat) ops in
    regs = regions l0 (rt_abs ops) /\
    Forall region_ok regs /\
    Forall (below l0) regs /\
    ForallOrdPairs (fun earlier later => below (fst (fst earlier)) later) regs.
Proof. exact rt_history. Qed.
Print Assumptions C07_rt_reserve_history.

(** Every call of every history starts from such a cursor, so the per-call theorems below apply to it. *)
Theorem C07_rt_cursor_invariant :
  forall (zf : N) (ops : list rop) (last stat : N),
    WFstart last -> Forall WFrop ops ->
    Forall (fun sr => WFstart (fst (fst sr))) (rrun true zf (last, stat) ops).
Proof. exact rrun_wf. Qed.
Print Assumptions C07_rt_cursor_invariant.

(** What the caller of sysReserve sees: the address of the region and *reserved = true - or, exactly when
    the page-rounded size (computed without wrap-around) does not fit below the cursor, a panic with an
    error, the cursor unmoved and *reserved untouched. *)
Theorem C07_rt_sysreserve_result :
  forall zf last stat s, s < two64 -> last <= vmm_tempMappingAddr ->
    rstep true zf (last, stat) (RSysReserve s) =
      match op_region last (Reserve s) with
      | Some (a, len, _) => ((a, stat), mk_rres (Ret a) true [] (Some a) len)
      | None => ((last, stat), mk_rres PanicErr false [] None (rt_round_up s))
      end.
Proof. exact sys_reserve_result. Qed.
Print Assumptions C07_rt_sysreserve_result.

(** sysAlloc reserves exactly what EarlyReserveRegion reserves for the size - whatever happens afterwards. *)
Theorem C07_rt_sysalloc_reserves :
  forall last stat s frames fail, s < two64 -> last <= vmm_tempMappingAddr ->
    let '(l, _, _, _, rsv) := sys_alloc true last stat s frames fail in
    match reserve_spec last s with
    | Some (a, _) => l = a /\ rsv = Some a
    | None => l = last /\ rsv = None
    end.
Proof. exact sys_alloc_reserves. Qed.
Print Assumptions C07_rt_sysalloc_reserves.

(** A sysAlloc request that does not fit returns nil: nothing reserved, no seam call, counter untouched. *)
Theorem C07_rt_sysalloc_no_fit :
  forall last stat s frames fail, s < two64 -> last <= vmm_tempMappingAddr -> reserve_spec last s = None ->
    sys_alloc true last stat s frames fail = (last, stat, Ret 0, [], None).
Proof. exact sys_alloc_no_fit. Qed.
Print Assumptions C07_rt_sysalloc_no_fit.

(** sysAlloc, every frame request answered and no mapping failing: the seam calls are exactly ceil(size/4096)
    rounds  AllocFrame -> mapFn(page, that frame, Present|NoExecute|RW) -> memsetFn(page address, 0, PageSize)
    over the consecutive pages of the fresh region, in order; the region's address is returned and the
    counter grows by the region size. *)
Theorem C07_rt_sysalloc_pages :
  forall last stat s a len, s < two64 -> WFstart last -> reserve_spec last s = Some (a, len) ->
  forall fs rest fail,
    N.of_nat (length fs) = ceil_pages s ->
    (forall k, fail = Some k -> ceil_pages s <= k) ->
    sys_alloc true last stat s (map Some fs ++ rest) fail =
      (a, add64 stat len, Ret a, rounds (a / 4096) fs, Some a).
Proof. exact sys_alloc_ok. Qed.
Print Assumptions C07_rt_sysalloc_pages.

(** The rounds, read call by call: page number i of the region goes to the i-th frame handed out with
    RW|Present|NoExecute; one memset of one page per mapped page; one AllocFrame per page. *)
Theorem C07_rt_rounds_calls :
  forall page fs,
    maps_of (rounds page fs) = pages_frames page fs /\
    length (pages_frames page fs) = length fs /\
    (forall i f, nth_error fs i = Some f ->
       nth_error (pages_frames page fs) i = Some (page + N.of_nat i, f, alloc_flags)) /\
    memsets_of (rounds page fs) = page_clears page (length fs) /\
    allocs_of (rounds page fs) = map Some fs /\
    alloc_flags = N.lor (N.lor vmm_FlagPresent vmm_FlagNoExecute) vmm_FlagRW.
Proof.
  intros page fs.
  exact (conj (rounds_maps page fs) (conj (pages_frames_length page fs) (conj (pages_frames_nth page fs)
        (conj (rounds_memsets page fs) (conj (rounds_allocs page fs) alloc_flags_val))))).
Qed.
Print Assumptions C07_rt_rounds_calls.

(** The allocator fails at round j (an error answer, or nothing left): the j complete rounds, then the
    failing AllocFrame and nothing after it; nil is returned, the counter is untouched (the region stays
    reserved and its first j pages stay mapped). *)
Theorem C07_rt_sysalloc_allocator_failure :
  forall last stat s a len, s < two64 -> WFstart last -> reserve_spec last s = Some (a, len) ->
  forall fs tail fail,
    N.of_nat (length fs) < ceil_pages s ->
    (tail = [] \/ exists rest, tail = None :: rest) ->
    (forall k, fail = Some k -> N.of_nat (length fs) <= k) ->
    sys_alloc true last stat s (map Some fs ++ tail) fail =
      (a, stat, Ret 0, rounds (a / 4096) fs ++ [EAlloc None], Some a).
Proof. exact sys_alloc_oom. Qed.
Print Assumptions C07_rt_sysalloc_allocator_failure.

(** Mapping call k fails: k complete rounds, the k-th frame request and the failing mapFn call, nothing
    after it (no memset of the unmapped page); nil is returned, the counter is untouched. *)
Theorem C07_rt_sysalloc_map_failure :
  forall last stat s a len, s < two64 -> WFstart last -> reserve_spec last s = Some (a, len) ->
  forall fs f rest,
    N.of_nat (length fs) < ceil_pages s ->
    sys_alloc true last stat s (map Some fs ++ Some f :: rest) (Some (N.of_nat (length fs))) =
      (a, stat, Ret 0,
       rounds (a / 4096) fs ++ [EAlloc (Some f); EMap (a / 4096 + N.of_nat (length fs)) f alloc_flags], Some a).
Proof. exact sys_alloc_map_fail. Qed.
Print Assumptions C07_rt_sysalloc_map_failure.

(** sysMap (reserved = true), any address whose page round-up stays inside the address space: exactly
    ceil(size/4096) mapFn calls for the consecutive pages starting at the rounded-up address, every one to
    ReservedZeroedFrame with Present|NoExecute|CopyOnWrite; the rounded-up address is returned and the
    counter grows by the page-rounded size. *)
Theorem C07_rt_sysmap_pages :
  forall zf stat addr size fail,
    addr + 4095 < two64 -> size + 4095 < two64 ->
    (forall k, fail = Some k -> ceil_pages size <= k) ->
    sys_map true zf stat addr size true fail =
      (add64 stat (ceil_pages size * 4096), Ret (ceil_pages addr * 4096),
       zero_calls (ceil_pages addr) zf (ceil_pages size)).
Proof.
  intros zf stat addr size fail Ha Hs Hf. rewrite (sys_map_spec zf stat addr size fail Ha Hs).
  destruct fail as [k|]; [|reflexivity].
  replace (k <? ceil_pages size) with false by (symmetry; apply N.ltb_ge; exact (Hf k eq_refl)). reflexivity.
Qed.
Print Assumptions C07_rt_sysmap_pages.

(** ... and it stops at the first mapping failure: k+1 calls, nil returned, counter untouched. *)
Theorem C07_rt_sysmap_fail_stops :
  forall zf stat addr size k,
    addr + 4095 < two64 -> size + 4095 < two64 -> k < ceil_pages size ->
    sys_map true zf stat addr size true (Some k) = (stat, Ret 0, zero_calls (ceil_pages addr) zf (k + 1)).
Proof.
  intros zf stat addr size k Ha Hs Hk. rewrite (sys_map_spec zf stat addr size (Some k) Ha Hs).
  apply N.ltb_lt in Hk. rewrite Hk. reflexivity.
Qed.
Print Assumptions C07_rt_sysmap_fail_stops.

Theorem C07_rt_sysmap_not_reserved_panics :
  forall chk zf stat addr size fail,
    sys_map chk zf stat addr size false fail = (stat, PanicNotReserved, []).
Proof. exact sys_map_not_reserved. Qed.
Print Assumptions C07_rt_sysmap_not_reserved_panics.

(** C06, zero-frame clause, for this client of the mapping interface: for ALL arguments (any address, any
    size, with or without the round-up check) every mapping sysMap requests names the zero frame with flags
    that do not contain FlagRW. *)
Theorem C07_rt_sysmap_zero_frame_readonly :
  forall chk zf stat addr size r fail e,
    In e (snd (sys_map chk zf stat addr size r fail)) ->
    (exists page, e = EMap page zf cow_flags) /\
    cow_flags = N.lor (N.lor vmm_FlagPresent vmm_FlagNoExecute) vmm_FlagCopyOnWrite /\
    N.land cow_flags vmm_FlagRW = 0.
Proof.
  intros chk zf stat addr size r fail e H.
  exact (conj (sys_map_zero_frame_readonly chk zf stat addr size r fail e H) cow_flags_val).
Qed.
Print Assumptions C07_rt_sysmap_zero_frame_readonly.

(** Sizes in the last page before 2^64 (the page round-up wraps to 0): sysReserve panics with an error,
    sysAlloc and sysMap return nil; nothing is reserved, no seam is called, the counter is untouched. *)
Theorem C07_rt_wrap_rejected :
  forall zf last stat addr s frames fail, s < two64 -> two64 <= s + 4095 ->
    sys_reserve true last s = (last, PanicErr, false) /\
    sys_alloc true last stat s frames fail = (last, stat, Ret 0, [], None) /\
    sys_map true zf stat addr s true fail = (stat, Ret 0, []).
Proof. exact rt_wrap_rejected. Qed.
Print Assumptions C07_rt_wrap_rejected.

(** The expression [(size + PageSize - 1) & ^(PageSize - 1)] as the three functions write it (one addition
    and one subtraction on uintptr) is the round-up of Vmm/Region.v for every 64-bit size. *)
Theorem C07_rt_round_up_word_exact :
  forall s, s < two64 -> rt_round_up s = round_up s.
Proof. exact rt_round_up_eq. Qed.
Print Assumptions C07_rt_round_up_word_exact.

(** Why the check matters - the code BEFORE the `fix:` commit recorded in known_findings/C07.json is the model
    with [chk = false], and it violates the property: from the kernel's initial cursor a request of 2^64-1
    bytes does not fit (reserve_spec = None), yet sysReserve returns the cursor with *reserved = true and
    sysAlloc returns it without a single seam call (a "successful" reservation of 0 bytes); sysMap reports
    success for a size of 2^64-1 after mapping nothing. *)
Definition C07_rt_full_no_fit_fails (chk : bool) : Prop :=
  forall last stat s frames fail, s < two64 -> WFstart last -> reserve_spec last s = None ->
    sys_reserve chk last s = (last, PanicErr, false) /\
    sys_alloc chk last stat s frames fail = (last, stat, Ret 0, [], None).

Theorem C07_rt_no_fit_fails : C07_rt_full_no_fit_fails true.
Proof.
  intros last stat s frames fail Hs Hst Hres. split.
  - rewrite (sys_reserve_spec last s Hs (proj2 Hst)), Hres. reflexivity.
  - exact (sys_alloc_no_fit last stat s frames fail Hs (proj2 Hst) Hres).
Qed.
Print Assumptions C07_rt_no_fit_fails.

Theorem C07_rt_unchecked_refuted :
  ~ C07_rt_full_no_fit_fails false /\
  (let last := vmm_earlyReserveInitial in let s := 0xffffffffffffffff in
   WFstart last /\ s < two64 /\ reserve_spec last s = None /\
   sys_reserve false last s = (last, Ret last, true) /\
   sys_alloc false last 0 s [] None = (last, 0, Ret last, [], Some last) /\
   sys_map false 5 0 0xffffff7fffffd000 s true None = (0, Ret 0xffffff7fffffd000, [])).
Proof.
  split; [|exact rt_unchecked_witness].
  intros H. destruct rt_unchecked_witness as (Hst & Hs & Hres & Hr & _).
  destruct (H _ 0 _ [] None Hs Hst Hres) as [H1 _]. rewrite Hr in H1. discriminate H1.
Qed.
Print Assumptions C07_rt_unchecked_refuted.
