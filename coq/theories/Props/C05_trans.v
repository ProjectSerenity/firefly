(** C05 - tie of setupPDTForKernel (kernel/mm/vmm/pdt.go) to the source BY TRANSLATION.

    Gen/Trans_vmm_kernel.v is regenerated on every run by gen/gotrans in its "memory as state" mode
    (gen/gotrans/ext_mem.go, config gen/gotrans/vmm_kernel.json; see Props/C04_pdt_trans.v for the mode).
      - The section visitor - a closure stored in the variable [visitor] and handed to visitElfSectionsFn through the
        noEscape cast - is translated as the body of [gvisit .. sections ..] (Lib/GoVisit.v): it runs once per item of
        [sections], the sequence of (flags, address, size) triples the visitor function delivers, in order; the closure
        has no result, so falling off its end and [return] both mean "next item"; the [return] inside its page loop
        leaves the loop and the closure.  [sections] is an extra parameter of the translated function.
        WHAT THE VISITOR FUNCTION DELIVERS IS NOT PART OF THIS TIE: that multiboot.VisitElfSections calls the closure
        once per ELF section of the boot information with non-zero size, in order, with the section's flags, address and
        size, is that function's contract and the subject of property C10.  The theorem instantiates [sections] with
        [K.nonempty secs], the list that contract yields for the section table [secs] of the model.
      - mm.AllocFrame, kernelPDT.Init, kernelPDT.Map, kernelPDT.Activate and translateFn are seams: each call is
        recorded as [GCall name [GNum arg ..]] and its effect and results come from a stateful oracle.  The oracles are
        the model's environment: the allocator oracle of the state, [pdt_init] / [pdt_map] / [pdt_activate] on the
        kernel's slot (tied to pdt.go by C04_pdt_*_is_translation) and [translate] (C04_translate_is_translation).
      - earlyReserveLastUsed is the field [last] of the state.
    [K.setup_kernel_tr] is the model [setup_kernel] of Vmm/Pt.v (the subject of C05_kernel_aspace) with the sequence
    of seam calls written next to it, on unary loop counts; [C05_setup_kernel_tr_is_model] says that forgetting that
    sequence gives [setup_kernel] exactly (state, error, Stray).
    [C05_setup_kernel_is_translation]: for every kernel offset, section table, state and allocator behaviour the
    regenerated function ends in the model's machine state with the model's error ([T.err_of]: nil iff 0), having made
    exactly the model's seam calls in the model's order; a stray access of the model is a panic.  Hypotheses: 64-bit
    offset, addresses, sizes and reservation cursor; fuel above the page count of every section that is MAPPED - non-empty
    and at or above the offset, [K.mapped off secs] - and of the reserved range ([K.fuel_ok]: fuel is an artefact of the translation
    of loops).  Empty entries, in particular the all-zero null section every ELF section table starts with (whose page
    count `size - 1` wraps to 2^52), are never delivered by the visitor and need no fuel, so the hypothesis is
    satisfiable for real tables with small fuel (example C05_null_section_table_nonvacuous).
    Neither do the sections the closure skips at `secAddress < kernelPageOffset` (the large non-alloc .symtab / .debug
    sections of a real ELF table sit at address 0): a real table satisfies the hypothesis with the small fuel the
    function actually needs (example C05_setup_kernel_is_translation_real_input).
    The seam oracles are FIXED to the model's pdt_init / pdt_map / pdt_activate / translate: the theorem does not range
    over arbitrary seam behaviours, only over allocator oracles carried in the state.
    Statements only; proofs are in Vmm/KernelTrans.v. *)
From Coq Require Import NArith String List Bool.
From FF Require Import Lib.Word Lib.GoOps Gen.Consts_mm_vmm Gen.Trans_vmm_kernel Vmm.Pt.
From FF Require Vmm.KernelTrans Vmm.PdtTrans Vmm.MapTrans.
Module K := FF.Vmm.KernelTrans.
Module T := FF.Vmm.PdtTrans.
Module M := FF.Vmm.MapTrans.
Import ListNotations.
Local Open Scope N_scope.

Theorem C05_setup_kernel_is_translation :
  forall (off : N) (secs : list section) (s : st) (tr0 : list gcall) (fuel : nat),
    off < two64 -> last s < two64 -> Forall K.sec_ok secs -> K.fuel_ok fuel off secs s ->
    go_vmm_setupPDTForKernel fuel (mk_go_vmm_world tr0 s) off
      K.o_kactivate K.o_kinit K.o_kmap M.o_alloc K.o_translate (K.nonempty secs) =
    match K.setup_kernel_tr off secs s tr0 with
    | None => GPanic
    | Some (s', e, tr') => GOk (mk_go_vmm_world tr' s', T.err_of e)
    end.
Proof. exact K.setup_kernel_is_translation. Qed.
Print Assumptions C05_setup_kernel_is_translation.

Theorem C05_setup_kernel_tr_is_model :
  forall (off : N) (secs : list section) (s : st) (tr0 : list gcall),
    match K.setup_kernel_tr off secs s tr0 with
    | None => Stray
    | Some (s', e, _) => Ok (s', e)
    end = setup_kernel off secs s.
Proof. exact K.setup_kernel_tr_model. Qed.
Print Assumptions C05_setup_kernel_tr_is_model.

(** the two together, without the trace: the regenerated function computes [setup_kernel] *)
Theorem C05_setup_kernel_is_translation_state :
  forall (off : N) (secs : list section) (s : st) (tr0 : list gcall) (fuel : nat),
    off < two64 -> last s < two64 -> Forall K.sec_ok secs -> K.fuel_ok fuel off secs s ->
    match go_vmm_setupPDTForKernel fuel (mk_go_vmm_world tr0 s) off
            K.o_kactivate K.o_kinit K.o_kmap M.o_alloc K.o_translate (K.nonempty secs) with
    | GOk (w, e) => GOk (f_world_mem w, e)
    | GPanic => GPanic
    | GFuel => GFuel
    end =
    match setup_kernel off secs s with
    | Stray => GPanic
    | Ok (s', e) => GOk (s', T.err_of e)
    end.
Proof. exact K.setup_kernel_is_translation_state. Qed.
Print Assumptions C05_setup_kernel_is_translation_state.
