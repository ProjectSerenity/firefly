(** C16 - tie of the early ring buffer model to the source BY TRANSLATION.
    Gen/Trans_kfmt_ring.v is regenerated on every run by gen/gotrans (go/ast, extended mode: loops on
    fuel, stores, slicing, copy, switch, Go int) from kernel/kfmt/ringbuf.go: the ringBuffer struct
    becomes a record (buffer = the list of its bytes, rIndex / wIndex = Go ints in two's complement),
    Write and Read become Gallina functions returning [gres]: a value, [GPanic] (Go run-time panic)
    or [GFuel] (the fuel of the range loop ran out).  The hand-written model Kfmt/Ring.v, about
    which C16's FIFO / capacity / drain theorems are proved, is shown equal to that translation on
    every ring satisfying the model's invariant [valid] (rIndex, wIndex < ringBufferSize; maintained
    by every operation: [C16_ring_trans_keeps_valid]), for every argument slice, outcome by outcome
    (new state, returned count and error, the bytes copied into p, panics).  Fuel: any
    fuel > len(p) suffices for Write (one iteration per byte plus the final test); Read has no loop.
    [to_go] is the abstraction from the model's PositiveMap to the translation's list.
    Statements only; proofs are in Kfmt/RingTrans.v. *)
From Coq Require Import NArith String List.
From FF Require Import Lib.GoOps Lib.GoOpsExt Gen.Trans_kfmt_ring Kfmt.Fmt Kfmt.Ring Kfmt.RingProofs Kfmt.RingTrans.
Local Open Scope N_scope.

Theorem C16_ring_write_is_translation :
  forall (rb : ring) (p : list N) (fuel : nat),
    valid rb -> (length p < fuel)%nat ->
    go_kfmt_ringBuffer_Write fuel (to_go rb) p =
    match ring_write rb p with
    | Ok rb' => GOk (to_go rb', (glen p, None))
    | Panic _ => GPanic
    | OutOfFuel => GFuel
    end.
Proof. exact write_is_translation. Qed.
Print Assumptions C16_ring_write_is_translation.

(** p models a Go slice: its length is an int *)
Theorem C16_ring_read_is_translation :
  forall (rb : ring) (p : list N),
    valid rb -> glen p < 2 ^ 63 ->
    go_kfmt_ringBuffer_Read (to_go rb) p =
    match ring_read rb (glen p) with
    | Ok (d, eof, rb') =>
        GOk (to_go rb', (glen d, (if eof then Some "io.EOF"%string else None), d ++ skipn (length d) p))
    | Panic _ => GPanic
    | OutOfFuel => GFuel
    end.
Proof. exact read_is_translation. Qed.
Print Assumptions C16_ring_read_is_translation.

(** the invariant under which the two agree is kept by both operations of the model, so the
    equalities chain along any history that starts from the zero value of the struct (the model's
    [empty_ring]) *)
Theorem C16_ring_trans_keeps_valid :
  to_go empty_ring = mk_go_kfmt_ringBuffer (repeat 0 (N.to_nat ring_len)) 0 0 /\
  valid empty_ring /\
  (forall rb p rb', valid rb -> ring_write rb p = Ok rb' -> valid rb') /\
  (forall rb plen d eof rb', valid rb -> ring_read rb plen = Ok (d, eof, rb') -> valid rb').
Proof. exact (conj to_go_empty (conj valid_empty (conj write_keeps_valid read_keeps_valid))). Qed.
Print Assumptions C16_ring_trans_keeps_valid.
