(** Non-vacuity and concrete runs for Props/C14_trans.v: the REGENERATED translations of the driver's functions
    (Gen/Trans_acpi_driver.v) are run by vm_compute on the firmware image of Props/C14_examples.v (a decoy root pointer
    with a bad checksum at 0x1000, a revision-2 root pointer at 0x1020 naming the XSDT at 0x2000, a revision-0 root
    pointer at 0x1050 naming 0x7000; tables at 0x3000 (APIC, valid) and 0x3100 (SSDT, corrupted)), and the hypotheses
    of the theorems are discharged on it. *)
From Coq Require Import NArith List Lia Bool String.
From FF Require Import Lib.Word Lib.GoOps Gen.Consts_device_acpi Gen.Trans_acpi_driver Acpi.Model Acpi.Spec
  Props.C14_examples Props.C14_trans.
From FF Require Acpi.AbortProofs.
Import ListNotations.
Local Open Scope N_scope.

Definition ld : N -> N -> option N := T.ld_of ex_mem.
Definition w0 : go_acpi_world := mk_go_acpi_world [].
Definition mapev (p : N) : gcall := GCall "mapFn" [GNum p; GNum p; GNum 1].
Definition unmapev (p : N) : gcall := GCall "unmapFn" [GNum p].

(** ---- validTable ---- *)
Example C14_trans_validTable_good : go_acpi_validTable 45 w0 0x3000 44 ld = GOk (w0, true).
Proof. vm_compute. reflexivity. Qed.

Example C14_trans_validTable_corrupted : go_acpi_validTable 37 w0 0x3100 36 ld = GOk (w0, false).
Proof. vm_compute. reflexivity. Qed.

(** one unit of fuel below the need: GFuel, not a panic *)
Example C14_trans_validTable_fuel : go_acpi_validTable 44 w0 0x3000 44 ld = GFuel.
Proof. vm_compute. reflexivity. Qed.

(** a length that runs off the image: the load fails, Go would fault *)
Example C14_trans_validTable_stray : go_acpi_validTable 100 w0 0x3000 45 ld = GPanic.
Proof. vm_compute. reflexivity. Qed.

Example C14_validTable_trans_nonvacuous :
  0x3000 < two64 /\ 44 < two32 /\ (N.to_nat 44 < 45)%nat /\
  go_acpi_validTable 45 w0 0x3000 44 ld = match validTable ex_mem 0x3000 44 with Got b => GOk (w0, b) | Fault _ => GPanic end.
Proof.
  assert (H1 : 0x3000 < two64) by (unfold two64; lia).
  assert (H2 : 44 < two32) by (unfold two32; lia).
  assert (H3 : (N.to_nat 44 < 45)%nat) by (vm_compute; lia).
  split; [exact H1|]. split; [exact H2|]. split; [exact H3|].
  exact (C14_validTable_is_translation ex_mem [] 0x3000 44 45 H1 H2 H3).
Qed.

(** ---- locateRSDT ---- *)
(** the whole window: the decoy at 0x1000 is skipped, the revision-2 root pointer at 0x1020 is taken: XSDT, 64-bit pointer;
    one page mapped, then unmapped by the deferred closure *)
Example C14_trans_locate_rev2 :
  go_acpi_locateRSDT 100 w0 ld 16 0x105f 0x1000 (T.o_map None 0) =
  GOk (mk_go_acpi_world [unmapev 1; mapev 1], (0x2000, true, None)).
Proof. vm_compute. reflexivity. Qed.

(** a window that starts behind it: the revision-0 root pointer at 0x1050: RSDT, 32-bit pointer *)
Example C14_trans_locate_rev0 :
  go_acpi_locateRSDT 100 w0 ld 16 0x105f 0x1030 (T.o_map None 0) =
  GOk (mk_go_acpi_world [unmapev 1; mapev 1], (0x7000, false, None)).
Proof. vm_compute. reflexivity. Qed.

(** only the decoy in the window: errMissingRSDP *)
Example C14_trans_locate_missing :
  go_acpi_locateRSDT 100 w0 ld 16 0x1010 0x1000 (T.o_map None 0) =
  GOk (mk_go_acpi_world [unmapev 1; mapev 1], (0, false, Some "errMissingRSDP"%string)).
Proof. vm_compute. reflexivity. Qed.

(** alignment 32 misses the root pointer at 0x1050 from 0x1030 (slots 0x1030, 0x1050 with 16; 0x1030 only with 48) *)
Example C14_trans_locate_alignment_matters :
  go_acpi_locateRSDT 100 w0 ld 48 0x105f 0x1030 (T.o_map None 0) =
  GOk (mk_go_acpi_world [unmapev 1; mapev 1], (0, false, Some "errMissingRSDP"%string)).
Proof. vm_compute. reflexivity. Qed.

(** a window of two pages, mapFn failing at its second call: the error is returned, nothing is scanned, and the
    deferred closure still unmaps BOTH pages *)
Example C14_trans_locate_map_error :
  go_acpi_locateRSDT 100 w0 ld 16 0x2010 0x1000 (T.o_map (Some 1) 0) =
  GOk (mk_go_acpi_world [unmapev 2; unmapev 1; mapev 2; mapev 1], (0, false, Some "errMap"%string)).
Proof. vm_compute. reflexivity. Qed.

(** a window that runs off the image: the signature compare reads an absent byte *)
Example C14_trans_locate_stray :
  go_acpi_locateRSDT 100 w0 ld 16 0x1080 0x1060 (T.o_map None 0) = GPanic.
Proof. vm_compute. reflexivity. Qed.

(** too little fuel is reported as such *)
Example C14_trans_locate_fuel :
  go_acpi_locateRSDT 5 w0 ld 16 0x105f 0x1000 (T.o_map None 0) = GFuel.
Proof. vm_compute. reflexivity. Qed.

(** the hypotheses of C14_locateRSDT_is_translation hold for this image and window (and for the kernel's own window
    constants), and the theorem - not vm_compute - then gives the model's answer *)
Example C14_locateRSDT_trans_nonvacuous :
  bytes_ok ex_mem /\ 0x1000 < two64 /\ 0 < 16 /\ 0x105f + 16 <= two64 /\
  (N.to_nat (T.locate_fuel 0x1000 0x105f 16) < 100)%nat /\
  acpi_rsdpLocationLow < two64 /\ 0 < acpi_rsdpAlignment /\ acpi_rsdpLocationHi + acpi_rsdpAlignment <= two64 /\
  go_acpi_locateRSDT 100 w0 ld 16 0x105f 0x1000 (T.o_map None 0) =
  T.locate_result [] 0x1000 (locateRSDT ex_mem 0x1000 0x105f 16 None).
Proof.
  assert (H1 : 0x1000 < two64) by (unfold two64; lia).
  assert (H2 : 0 < 16) by lia.
  assert (H3 : 0x105f + 16 <= two64) by (unfold two64; lia).
  assert (H4 : (N.to_nat (T.locate_fuel 0x1000 0x105f 16) < 100)%nat) by (vm_compute; lia).
  split; [exact C14_bytes_ok_nonvacuous|]. split; [exact H1|]. split; [exact H2|]. split; [exact H3|]. split; [exact H4|].
  split; [vm_compute; reflexivity|]. split; [vm_compute; reflexivity|]. split; [vm_compute; discriminate|].
  exact (C14_locateRSDT_is_translation ex_mem 0x1000 0x105f 16 None [] 100 C14_bytes_ok_nonvacuous H1 H2 H3 H4).
Qed.

(** ---- mapACPITable ---- *)
Definition idev (f sz : N) : gcall := GCall "identityMapFn" [GNum f; GNum sz; GNum 1].

(** the valid APIC table at 0x3000 (44 bytes): header mapped (36 bytes), then the whole table, checksum fine *)
Example C14_trans_map_good :
  go_acpi_mapACPITable 100 w0 0x3000 ld (T.o_idmap nofail) =
  GOk (mk_go_acpi_world [idev 3 44; idev 3 36], (0x3000, 36, None)).
Proof. vm_compute. reflexivity. Qed.

(** the corrupted SSDT at 0x3100: the header pointer is still returned, with errTableChecksumMismatch *)
Example C14_trans_map_mismatch :
  go_acpi_mapACPITable 100 w0 0x3100 ld (T.o_idmap nofail) =
  GOk (mk_go_acpi_world [idev 3 36; idev 3 36], (0x3100, 36, Some "errTableChecksumMismatch"%string)).
Proof. vm_compute. reflexivity. Qed.

(** identityMapFn failing at its second call: nil header, the seam's error, no checksum *)
Example C14_trans_map_seam_error :
  go_acpi_mapACPITable 100 w0 0x3000 ld (T.o_idmap (fun k => k =? 1)) =
  GOk (mk_go_acpi_world [idev 3 44; idev 3 36], (0, 36, Some "errMap"%string)).
Proof. vm_compute. reflexivity. Qed.

(** a pointer into nowhere: reading header.Length faults *)
Example C14_trans_map_stray : go_acpi_mapACPITable 100 w0 0x9000 ld (T.o_idmap nofail) = GPanic.
Proof. vm_compute. reflexivity. Qed.

Example C14_mapACPITable_trans_nonvacuous :
  bytes_ok ex_mem /\ 0x3000 < two64 /\ sk (mkSeam 0 []) = T.n_idmap [] /\ (N.to_nat two32 <= N.to_nat two32)%nat /\
  go_acpi_mapACPITable (N.to_nat two32) w0 0x3000 ld (T.o_idmap nofail) =
  T.map_result [] (mkSeam 0 []) (mapACPITable ex_mem nofail (mkSeam 0 []) 0x3000).
Proof.
  assert (H1 : 0x3000 < two64) by (unfold two64; lia).
  split; [exact C14_bytes_ok_nonvacuous|]. split; [exact H1|]. split; [reflexivity|]. split; [apply le_n|].
  exact (C14_mapACPITable_is_translation ex_mem nofail (mkSeam 0 []) [] 0x3000 (N.to_nat two32)
           C14_bytes_ok_nonvacuous H1 eq_refl (le_n _)).
Qed.

(** ---- enumerateTables ---- *)
(** result and the model state the final trace stands for *)
Definition run_enum (fuel : nat) (fail : N -> bool) (rsdt : N) (x : bool) : option (option string * state) :=
  match go_acpi_acpiDriver_enumerateTables fuel w0 rsdt x ld (T.o_idmap fail) with
  | GOk (w, e) => Some (e, T.abs (f_world_trace w))
  | _ => None
  end.

(** one run of the translated enumeration on the XSDT at 0x2000; the examples below read their part off it *)
Lemma enum_200 :
  exists tr, go_acpi_acpiDriver_enumerateTables 200 w0 0x2000 true ld (T.o_idmap nofail) = GOk (mk_go_acpi_world tr, None) /\
             T.abs tr = ex_state /\
             map (fun c => match c with GCall n _ => n end) tr =
             ["tableMap.set"; "identityMapFn"; "identityMapFn"; "tableMap.set"; "identityMapFn"; "identityMapFn";
              "Fprintf"; "identityMapFn"; "identityMapFn"; "tableMap.set"; "identityMapFn"; "identityMapFn";
              "tableMap.make"; "identityMapFn"; "identityMapFn"]%string.
Proof. eexists. split; [vm_compute; reflexivity|]. split; vm_compute; reflexivity. Qed.

(** the XSDT at 0x2000 (8-byte entries: APIC, SSDT - corrupted -, FACP with its DSDT): the translated function makes
    exactly the model's ten identityMapFn calls, reports the SSDT once, registers APIC, FACP and DSDT *)
Example C14_trans_enum_run : run_enum 200 nofail 0x2000 true = Some (None, ex_state).
Proof. destruct enum_200 as (tr & E & A & _). unfold run_enum. rewrite E. cbn [f_world_trace]. rewrite A. reflexivity. Qed.

(** the trace itself, most recent call first (the model keeps the three kinds of events apart; the translation interleaves them) *)
Example C14_trans_enum_trace :
  match go_acpi_acpiDriver_enumerateTables 200 w0 0x2000 true ld (T.o_idmap nofail) with
  | GOk (w, _) => map (fun c => match c with GCall n _ => n end) (f_world_trace w)
  | _ => []
  end =
  ["tableMap.set"; "identityMapFn"; "identityMapFn"; "tableMap.set"; "identityMapFn"; "identityMapFn";
   "Fprintf"; "identityMapFn"; "identityMapFn"; "tableMap.set"; "identityMapFn"; "identityMapFn";
   "tableMap.make"; "identityMapFn"; "identityMapFn"]%string.
Proof. destruct enum_200 as (tr & E & _ & M). rewrite E. exact M. Qed.

(** identityMapFn failing at its 5th call (the header of the SSDT): the seam's error, and the state at the abort is the model's *)
Example C14_trans_enum_seam_failure :
  run_enum 200 (fun k => k =? 4) 0x2000 true =
  Some (Some "errMap"%string, fst (enumerateTables ex_mem (fun k => k =? 4) 0x2000 true)).
Proof. vm_compute. reflexivity. Qed.

(** a corrupted root table (the SSDT taken as root): errTableChecksumMismatch, nothing registered *)
Example C14_trans_enum_bad_root :
  match run_enum 200 nofail 0x3100 true with Some (e, s) => Some (e, st_tmap s) | None => None end =
  Some (Some "errTableChecksumMismatch"%string, []).
Proof. vm_compute. reflexivity. Qed.

(** the same root table read with 4-byte entries: the second entry is the null upper half of the first pointer: a stray read *)
Example C14_trans_enum_wrong_width : run_enum 200 nofail 0x2000 false = None.
Proof. vm_compute. reflexivity. Qed.
Example C14_trans_enum_wrong_width_model : exists a, snd (enumerateTables ex_mem nofail 0x2000 false) = IStray a.
Proof. eexists. vm_compute. reflexivity. Qed.

(** the hypotheses of C14_enumerateTables_is_translation hold here; the theorem gives the model's state for the trace *)
Example C14_enumerateTables_trans_nonvacuous :
  bytes_ok ex_mem /\ 0x2000 < two64 /\ (N.to_nat two32 <= N.to_nat two32)%nat /\
  exists tr, go_acpi_acpiDriver_enumerateTables (N.to_nat two32) w0 0x2000 true ld (T.o_idmap nofail) = GOk (mk_go_acpi_world tr, None) /\
             T.abs tr = ex_state.
Proof.
  assert (H1 : 0x2000 < two64) by (unfold two64; lia).
  split; [exact C14_bytes_ok_nonvacuous|]. split; [exact H1|]. split; [apply le_n|].
  pose proof (C14_enumerateTables_is_translation ex_mem nofail 0x2000 true (N.to_nat two32) C14_bytes_ok_nonvacuous H1 (le_n _)) as H.
  rewrite (AbortProofs.driverInit_ok _ _ _ _ _ _ C14_driver_init_run) in H. exact H.
Qed.

(** ---- probeForACPI, DriverInit, and the two in sequence ---- *)
(** the probe over the whole window returns the driver {rsdtAddr: 0x2000, useXSDT: true} *)
Example C14_trans_probe_run :
  go_acpi_probeForACPI 100 w0 ld 16 0x105f 0x1000 (T.o_map None 0) =
  GOk (mk_go_acpi_world [unmapev 1; mapev 1], (true, 0x2000, true)).
Proof. vm_compute. reflexivity. Qed.

(** no root pointer / mapFn error: nil *)
Example C14_trans_probe_nil :
  go_acpi_probeForACPI 100 w0 ld 16 0x1010 0x1000 (T.o_map None 0) = GOk (mk_go_acpi_world [unmapev 1; mapev 1], (false, 0, false)) /\
  go_acpi_probeForACPI 100 w0 ld 16 0x105f 0x1000 (T.o_map (Some 0) 0) = GOk (mk_go_acpi_world [unmapev 1; mapev 1], (false, 0, false)).
Proof. split; vm_compute; reflexivity. Qed.

(** DriverInit on that driver: nil, printTableInfo called last, the trace before it stands for the model's final state *)
Example C14_trans_init_run :
  match go_acpi_acpiDriver_DriverInit 200 w0 0x2000 true ld (T.o_idmap nofail) with
  | GOk (w, e) => Some (e, hd_error (f_world_trace w), T.abs (f_world_trace w))
  | _ => None
  end = Some (None, Some T.ev_print, ex_state).
Proof.
  destruct enum_200 as (tr & E & A & _). unfold go_acpi_acpiDriver_DriverInit. rewrite E.
  cbn [gerr_eqb negb f_world_trace set_f_world_trace hd_error]. rewrite <- A. reflexivity.
Qed.

(** an enumeration error is returned and printTableInfo is not called *)
Example C14_trans_init_error :
  match go_acpi_acpiDriver_DriverInit 200 w0 0x2000 true ld (T.o_idmap (fun k => k =? 4)) with
  | GOk (w, e) => Some (e, existsb (fun c => match c with GCall n _ => String.eqb n "printTableInfo" end) (f_world_trace w))
  | _ => None
  end = Some (Some "errMap"%string, false).
Proof. vm_compute. reflexivity. Qed.

(** scan, driver, enumeration in one run: the registered tables are the model's *)
Example C14_trans_probe_then_init_run :
  match T.probe_then_init 200 [] ld 16 0x105f 0x1000 (T.o_map None 0) (T.o_idmap nofail) with
  | GOk (w, r) => Some (r, st_tmap (T.abs (f_world_trace w)), st_events (T.abs (f_world_trace w)))
  | _ => None
  end = Some ((true, None), [(DSDT, 0x3400); (FACP, 0x3200); (APIC, 0x3000)], [EvMismatch SSDT 0x3100 36]).
Proof. vm_compute. reflexivity. Qed.

(** the window behind the revision-2 pointer: the revision-0 pointer names 0x7000, where there is no table: the probe
    returns a driver and DriverInit faults on the header (model: PFound, then IStray) *)
Example C14_trans_probe_then_init_stray :
  T.probe_then_init 200 [] ld 16 0x105f 0x1030 (T.o_map None 0) (T.o_idmap nofail) = GPanic.
Proof. vm_compute. reflexivity. Qed.

Example C14_probe_then_init_trans_nonvacuous :
  bytes_ok ex_mem /\ 0x1000 < two64 /\ 0 < 16 /\ 0x105f + 16 <= two64 /\
  (N.to_nat (T.locate_fuel 0x1000 0x105f 16) < N.to_nat two32)%nat /\ (N.to_nat two32 <= N.to_nat two32)%nat /\
  exists tr, T.probe_then_init (N.to_nat two32) [] ld 16 0x105f 0x1000 (T.o_map None 0) (T.o_idmap nofail) =
             GOk (mk_go_acpi_world (T.ev_print :: tr), (true, None)) /\ T.abs tr = ex_state.
Proof.
  assert (H1 : 0x1000 < two64) by (unfold two64; lia).
  assert (H2 : 0 < 16) by lia.
  assert (H3 : 0x105f + 16 <= two64) by (unfold two64; lia).
  assert (H4 : (N.to_nat (T.locate_fuel 0x1000 0x105f 16) < N.to_nat two32)%nat).
  { assert (Hx : T.locate_fuel 0x1000 0x105f 16 < 100) by (vm_compute; reflexivity).
    revert Hx. generalize (T.locate_fuel 0x1000 0x105f 16). intros a Hx. unfold two32. lia. }
  split; [exact C14_bytes_ok_nonvacuous|]. split; [exact H1|]. split; [exact H2|]. split; [exact H3|]. split; [exact H4|]. split; [apply le_n|].
  pose proof (C14_probe_then_init_is_translation ex_mem 0x1000 0x105f 16 None nofail (N.to_nat two32)
                C14_bytes_ok_nonvacuous H1 H2 H3 H4 (le_n _)) as H.
  cbv zeta in H.
  rewrite C14_probe_run, C14_driver_init_run in H. exact H.
Qed.

(** C14_validTable_trans_spec: hypotheses as for C14_validTable_is_translation; with the concrete run above the theorem
    yields the specification side for the valid APIC table and for the corrupted SSDT *)
Example C14_validTable_trans_spec_nonvacuous :
  0x3000 < two64 /\ 44 < two32 /\ (N.to_nat 44 < 45)%nat /\ sums_to_zero ex_mem 0x3000 44 /\ sums_to_nonzero ex_mem 0x3100 36.
Proof.
  assert (H1 : 0x3000 < two64) by (unfold two64; lia).
  assert (H2 : 44 < two32) by (unfold two32; lia).
  assert (H3 : (N.to_nat 44 < 45)%nat) by (vm_compute; lia).
  assert (H1' : 0x3100 < two64) by (unfold two64; lia).
  assert (H2' : 36 < two32) by (unfold two32; lia).
  assert (H3' : (N.to_nat 36 < 37)%nat) by (vm_compute; lia).
  split; [exact H1|]. split; [exact H2|]. split; [exact H3|]. split.
  - apply (proj1 (C14_validTable_trans_spec ex_mem [] 0x3000 44 45 H1 H2 H3)). exact C14_trans_validTable_good.
  - apply (proj2 (C14_validTable_trans_spec ex_mem [] 0x3100 36 37 H1' H2' H3')). exact C14_trans_validTable_corrupted.
Qed.

(** C14_probe_is_translation: the hypotheses (those of C14_locateRSDT_is_translation) on the example image, and the theorem's
    answer agrees with the concrete run: a driver carrying (0x2000, XSDT) *)
Example C14_probe_trans_nonvacuous :
  bytes_ok ex_mem /\ 0x1000 < two64 /\ 0 < 16 /\ 0x105f + 16 <= two64 /\
  (N.to_nat (T.locate_fuel 0x1000 0x105f 16) < 100)%nat /\
  T.probe_result [] 0x1000 (locateRSDT ex_mem 0x1000 0x105f 16 None) =
  GOk (mk_go_acpi_world [unmapev 1; mapev 1], (true, 0x2000, true)).
Proof.
  assert (H1 : 0x1000 < two64) by (unfold two64; lia).
  assert (H2 : 0 < 16) by lia.
  assert (H3 : 0x105f + 16 <= two64) by (unfold two64; lia).
  assert (H4 : (N.to_nat (T.locate_fuel 0x1000 0x105f 16) < 100)%nat) by (vm_compute; lia).
  split; [exact C14_bytes_ok_nonvacuous|]. split; [exact H1|]. split; [exact H2|]. split; [exact H3|]. split; [exact H4|].
  rewrite <- (C14_probe_is_translation ex_mem 0x1000 0x105f 16 None [] 100 C14_bytes_ok_nonvacuous H1 H2 H3 H4).
  exact C14_trans_probe_run.
Qed.

(** C14_driverInit_is_translation: hypotheses and the IOk branch at the example image *)
Example C14_driverInit_trans_nonvacuous :
  bytes_ok ex_mem /\ 0x2000 < two64 /\ (N.to_nat two32 <= N.to_nat two32)%nat /\
  exists tr, go_acpi_acpiDriver_DriverInit (N.to_nat two32) w0 0x2000 true ld (T.o_idmap nofail) =
             GOk (mk_go_acpi_world (T.ev_print :: tr), None) /\ T.abs tr = ex_state.
Proof.
  assert (H1 : 0x2000 < two64) by (unfold two64; lia).
  split; [exact C14_bytes_ok_nonvacuous|]. split; [exact H1|]. split; [apply le_n|].
  pose proof (C14_driverInit_is_translation ex_mem nofail 0x2000 true (N.to_nat two32) C14_bytes_ok_nonvacuous H1 (le_n _)) as H.
  cbv zeta in H.
  rewrite C14_driver_init_run in H. exact H.
Qed.

(** the side conditions of the locateRSDT / probe theorems at the KERNEL's own search window (0xe0000 .. 0xfffff, step 16)
    with a fuel a caller can write down: 32 pages + 8191 slots + the per-slot constant, below 10000 *)
Example C14_locateRSDT_trans_real_input :
  acpi_rsdpLocationLow = 0xe0000 /\ acpi_rsdpLocationHi = 0xfffff /\ acpi_rsdpAlignment = 16 /\
  acpi_rsdpLocationLow < two64 /\ 0 < acpi_rsdpAlignment /\ acpi_rsdpLocationHi + acpi_rsdpAlignment <= two64 /\
  T.locate_fuel acpi_rsdpLocationLow acpi_rsdpLocationHi acpi_rsdpAlignment < 10000 /\
  (N.to_nat (T.locate_fuel acpi_rsdpLocationLow acpi_rsdpLocationHi acpi_rsdpAlignment) < N.to_nat 10000)%nat.
Proof.
  assert (Hf : T.locate_fuel acpi_rsdpLocationLow acpi_rsdpLocationHi acpi_rsdpAlignment < 10000) by (vm_compute; reflexivity).
  repeat split; try (vm_compute; reflexivity); try (vm_compute; discriminate).
  revert Hf. generalize (T.locate_fuel acpi_rsdpLocationLow acpi_rsdpLocationHi acpi_rsdpAlignment). intros a Ha. lia.
Qed.
