(** C10 — multiboot information is decoded exactly and never read past its end.
    Statements; the proofs are lemmas of Multiboot/*Proofs.v, exacted or combined in a few lines.

    Model (Multiboot/Model.v): the decoders of kernel/multiboot/multiboot.go over a memory made of
    accessible segments; every load/store outside them is the outcome [Stray].
    Spec  (Multiboot/Spec.v): [mbinfo] = reserved word + list of tags (memory map with any entry size
    >= 24, framebuffer, command line, ELF sections, opaque others) each followed by its alignment
    padding; [encode] lays it out per the multiboot2 rules; [mem_of l block] places the block at
    [l_info l] (preceded by the accessible rest of its page) and the string table at [l_saddr l];
    everything else is inaccessible.  All theorems quantify over every well-formed [mbinfo] (any tag
    order, duplicates, sizes, padding bytes) and every placement; the results being [Ok] means that
    NO load or store left the block / string table. *)
From Coq Require Import NArith List Bool.
From FF Require Import Lib.Word Gen.Consts_multiboot Multiboot.Model Multiboot.Spec Multiboot.MemLemmas
  Multiboot.FindProofs Multiboot.MemMapProofs Multiboot.FbProofs Multiboot.CmdProofs Multiboot.ElfProofs Multiboot.Corollaries
  Multiboot.AfterVisit Multiboot.AfterVisitProofs.
Import ListNotations.
Local Open Scope N_scope.

(** the tag scan (8-byte stepping, int32(size+7)&^7) returns the payload address and payload size
    of the FIRST tag of the wanted type, or (0,0) when there is none; it terminates and never strays *)
Theorem C10_find_tag :
  forall (l : layout) (mb : mbinfo) (ty : N),
    mbinfo_wf (l_saddr l) (l_strtab l) mb -> layout_wf l (encode mb) -> ty <> 0 ->
    find_tag (mem_of l (encode mb)) (l_info l) ty =
      Ok (match locate ty (mb_tags mb) 8 with
          | Some (o, t) => (l_info l + o + 8, len (payload t))
          | None => (0, 0)
          end).
Proof. exact find_tag_encode. Qed.
Print Assumptions C10_find_tag.

(** memory regions: the visitor sees the entries of the first memory-map tag, in order, with their
    address and length, types outside {1,2,3,4} reported as reserved, until it returns false; the
    only stores are the in-place type normalisations, inside the block (its length is unchanged) *)
Theorem C10_mem_regions :
  forall (l : layout) (mb : mbinfo) (cont : N -> region -> bool) (fuel : nat),
    mbinfo_wf (l_saddr l) (l_strtab l) mb -> layout_wf l (encode mb) ->
    (length (expected_regions mb) < fuel)%nat ->
    exists block',
      len block' = len (encode mb) /\
      visit_mem_regions fuel cont (mem_of l (encode mb)) (l_info l) =
        (mem_of l block', visited cont 0 (expected_regions mb), Ok tt).
Proof. exact visit_mem_regions_encode. Qed.
Print Assumptions C10_mem_regions.

(** framebuffer: address, pitch, width, height, bpp, type of the first framebuffer tag and, for an
    RGB framebuffer, the six colour-layout bytes; None when there is no such tag *)
Theorem C10_framebuffer :
  forall (l : layout) (mb : mbinfo),
    mbinfo_wf (l_saddr l) (l_strtab l) mb -> layout_wf l (encode mb) ->
    framebuffer (mem_of l (encode mb)) (l_info l) = Ok (expected_fb mb).
Proof. exact framebuffer_encode. Qed.
Print Assumptions C10_framebuffer.

(** command line: the map built from the key=value and bare entries of the first command-line tag
    (bare flag f maps f to f; a later entry overrides an earlier one with the same key) *)
Theorem C10_cmdline :
  forall (l : layout) (mb : mbinfo),
    mbinfo_wf (l_saddr l) (l_strtab l) mb -> layout_wf l (encode mb) ->
    get_boot_cmdline (mem_of l (encode mb)) (l_info l) = Ok (expected_cmdline mb).
Proof. exact get_boot_cmdline_encode. Qed.
Print Assumptions C10_cmdline.

(** ELF sections: every section of the first ELF tag whose size is not 0, in order, with its
    NUL-terminated name from the string table, flags (low 32 bits), address and size *)
Theorem C10_elf_sections :
  forall (l : layout) (mb : mbinfo),
    mbinfo_wf (l_saddr l) (l_strtab l) mb -> layout_wf l (encode mb) ->
    visit_elf_sections (mem_of l (encode mb)) (l_info l) = (expected_sections (l_strtab l) mb, Ok tt).
Proof. exact visit_elf_sections_encode. Qed.
Print Assumptions C10_elf_sections.

(** decode ∘ encode: all four decoders at once *)
Theorem C10_decode_encode :
  forall (l : layout) (mb : mbinfo) (cont : N -> region -> bool) (fuel : nat),
    mbinfo_wf (l_saddr l) (l_strtab l) mb -> layout_wf l (encode mb) ->
    (length (expected_regions mb) < fuel)%nat ->
    let m := mem_of l (encode mb) in
    (exists block', len block' = len (encode mb) /\
       visit_mem_regions fuel cont m (l_info l) = (mem_of l block', visited cont 0 (expected_regions mb), Ok tt)) /\
    framebuffer m (l_info l) = Ok (expected_fb mb) /\
    get_boot_cmdline m (l_info l) = Ok (expected_cmdline mb) /\
    visit_elf_sections m (l_info l) = (expected_sections (l_strtab l) mb, Ok tt).
Proof.
  intros l mb cont fuel H1 H2 H3.
  exact (conj (visit_mem_regions_encode l mb cont fuel H1 H2 H3)
        (conj (framebuffer_encode l mb H1 H2)
        (conj (get_boot_cmdline_encode l mb H1 H2) (visit_elf_sections_encode l mb H1 H2)))).
Qed.
Print Assumptions C10_decode_encode.

(** what the region scan leaves in memory: exactly the encoding of [after_visit cont mb] — the same
    block with the type field of every visited entry of the first memory map normalised — ... *)
Theorem C10_mem_regions_memory :
  forall (l : layout) (mb : mbinfo) (cont : N -> region -> bool) (fuel : nat),
    mbinfo_wf (l_saddr l) (l_strtab l) mb -> layout_wf l (encode mb) ->
    (length (expected_regions mb) < fuel)%nat ->
    visit_mem_regions fuel cont (mem_of l (encode mb)) (l_info l) =
      (mem_of l (encode (after_visit cont mb)), visited cont 0 (expected_regions mb), Ok tt).
Proof. intros l mb cont fuel H1 H2 H3. exact (visit_mem_regions_after l mb cont H1 H2 fuel H3). Qed.
Print Assumptions C10_mem_regions_memory.

(** ... which is again a well-formed block at the same place with the same content *)
Theorem C10_after_visit_wellformed :
  forall (l : layout) (mb : mbinfo) (cont : N -> region -> bool),
    mbinfo_wf (l_saddr l) (l_strtab l) mb -> layout_wf l (encode mb) ->
    mbinfo_wf (l_saddr l) (l_strtab l) (after_visit cont mb) /\ layout_wf l (encode (after_visit cont mb)) /\
    expected_regions (after_visit cont mb) = expected_regions mb /\
    expected_fb (after_visit cont mb) = expected_fb mb /\
    expected_cmdline (after_visit cont mb) = expected_cmdline mb /\
    expected_sections (l_strtab l) (after_visit cont mb) = expected_sections (l_strtab l) mb.
Proof.
  intros l mb cont H1 H2.
  exact (conj (proj1 (after_visit_wf l mb cont H1 H2)) (conj (proj2 (after_visit_wf l mb cont H1 H2)) (after_visit_same l mb cont))).
Qed.
Print Assumptions C10_after_visit_wellformed.

(** so every decoder run AFTER a region scan, on the memory it left behind, still reports exactly
    the content of the block (this is the call sequence of the correspondence harness) *)
Theorem C10_decoders_after_visit :
  forall (l : layout) (mb : mbinfo) (cont cont' : N -> region -> bool) (fuel : nat),
    mbinfo_wf (l_saddr l) (l_strtab l) mb -> layout_wf l (encode mb) ->
    (length (expected_regions mb) < fuel)%nat ->
    let m1 := fst (fst (visit_mem_regions fuel cont (mem_of l (encode mb)) (l_info l))) in
    snd (fst (visit_mem_regions fuel cont' m1 (l_info l))) = visited cont' 0 (expected_regions mb) /\
    snd (visit_mem_regions fuel cont' m1 (l_info l)) = Ok tt /\
    framebuffer m1 (l_info l) = Ok (expected_fb mb) /\
    get_boot_cmdline m1 (l_info l) = Ok (expected_cmdline mb) /\
    visit_elf_sections m1 (l_info l) = (expected_sections (l_strtab l) mb, Ok tt).
Proof. exact decoders_after_visit. Qed.
Print Assumptions C10_decoders_after_visit.

(** tag order is irrelevant: two well-formed blocks whose first tag of each decoded kind agree (e.g.
    any reordering that keeps the relative order of tags of the same kind, with any other tags
    added, removed or moved) give the same reports, wherever they are placed *)
Theorem C10_tag_order_irrelevant :
  forall (l l' : layout) (mb mb' : mbinfo) (cont : N -> region -> bool) (fuel : nat),
    mbinfo_wf (l_saddr l) (l_strtab l) mb -> layout_wf l (encode mb) ->
    mbinfo_wf (l_saddr l') (l_strtab l') mb' -> layout_wf l' (encode mb') ->
    l_strtab l = l_strtab l' ->
    first_tag sel_memmap (mb_tags mb) = first_tag sel_memmap (mb_tags mb') ->
    first_tag sel_fb (mb_tags mb) = first_tag sel_fb (mb_tags mb') ->
    first_tag sel_cmd (mb_tags mb) = first_tag sel_cmd (mb_tags mb') ->
    first_tag sel_elf (mb_tags mb) = first_tag sel_elf (mb_tags mb') ->
    (length (expected_regions mb) < fuel)%nat ->
    let m := mem_of l (encode mb) in
    let m' := mem_of l' (encode mb') in
    snd (fst (visit_mem_regions fuel cont m (l_info l))) = snd (fst (visit_mem_regions fuel cont m' (l_info l'))) /\
    snd (visit_mem_regions fuel cont m (l_info l)) = Ok tt /\
    snd (visit_mem_regions fuel cont m' (l_info l')) = Ok tt /\
    framebuffer m (l_info l) = framebuffer m' (l_info l') /\
    get_boot_cmdline m (l_info l) = get_boot_cmdline m' (l_info l') /\
    visit_elf_sections m (l_info l) = visit_elf_sections m' (l_info l').
Proof. exact tag_order_irrelevant. Qed.
Print Assumptions C10_tag_order_irrelevant.

(** an absent tag yields an empty result *)
Theorem C10_absent_tags :
  forall (l : layout) (mb : mbinfo) (cont : N -> region -> bool) (fuel : nat),
    mbinfo_wf (l_saddr l) (l_strtab l) mb -> layout_wf l (encode mb) -> (0 < fuel)%nat ->
    let m := mem_of l (encode mb) in
    (first_tag sel_memmap (mb_tags mb) = None -> visit_mem_regions fuel cont m (l_info l) = (m, [], Ok tt)) /\
    (first_tag sel_fb (mb_tags mb) = None -> framebuffer m (l_info l) = Ok None) /\
    (first_tag sel_cmd (mb_tags mb) = None -> get_boot_cmdline m (l_info l) = Ok []) /\
    (first_tag sel_elf (mb_tags mb) = None -> visit_elf_sections m (l_info l) = ([], Ok tt)).
Proof. intros l mb cont fuel W L _. exact (absent_tags l mb cont fuel W L). Qed.
Print Assumptions C10_absent_tags.

(** region types: exactly the defined ones are kept *)
Theorem C10_region_type :
  forall t, norm_type t = (if (1 <=? t) && (t <=? 4) then t else mb_MemReserved).
Proof. exact norm_type_spec. Qed.
Print Assumptions C10_region_type.

(** the command-line tokenizer inverts the layout of a command line *)
Theorem C10_cmdline_text :
  forall c : cmdline, cmdline_wf c ->
    parse_cmdline (cmd_text c) =
      fold_left (fun al e => assign (fst (entry_pair (fst e))) (snd (entry_pair (fst e))) al) (c_entries c) [].
Proof. exact parse_cmd_text. Qed.
Print Assumptions C10_cmdline_text.
