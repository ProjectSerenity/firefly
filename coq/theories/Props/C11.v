(** C11 — well-formed AML is parsed into a namespace that matches the program.
    Statements only; every proof is [exact <lemma>] (the round trips: Aml/LexRoundtrip.v; the refutation: Aml/C11Witness.v). *)
From Coq Require Import NArith List.
From FF Require Import Lib.Word Gen.Consts_device_acpi_aml Aml.Stream Aml.Lex Aml.LexProofs Aml.Grammar Aml.LexRoundtrip Aml.WfProgram Aml.C11Witness.
Import ListNotations.
Local Open Scope N_scope.

(** [lex_roundtrip] (full).  [at_token r pre tok post]: the reader is positioned in front of the bytes [tok] of a
    table pre ++ tok ++ post, the token lies inside the current package, the reader invariant holds.  Each lexer
    function returns exactly the encoded value and leaves the reader right behind the token. *)

(** PkgLength: every value in each admissible width k = 1 (v < 64), 2 (v < 2^12), 3 (v < 2^20), 4 (v < 2^28) *)
Theorem C11_lex_roundtrip_pkglen : forall k v r pre post,
  pkglen_admissible k v -> at_token r pre (enc_pkglen k v) post ->
  parsePkgLength r = Ok (v, true, set_offset_raw r (lenN pre + k)).
Proof. exact pkglen_roundtrip. Qed.
Print Assumptions C11_lex_roundtrip_pkglen.

(** numbers: n <= 8 little-endian bytes *)
Theorem C11_lex_roundtrip_num : forall (n : nat) v r pre post,
  (n <= 8)%nat -> v < 2 ^ (N.of_nat n * 8) -> at_token r pre (le_bytes n v) post ->
  parseNumConstant (N.of_nat n) r = Ok (v, true, set_offset_raw r (lenN pre + N.of_nat n)).
Proof. exact num_roundtrip. Qed.
Print Assumptions C11_lex_roundtrip_num.

(** strings: ASCII characters 1..127 and the terminator; the []byte is the string without the terminator *)
Theorem C11_lex_roundtrip_string : forall str r pre post,
  Forall ascii_char str -> at_token r pre (str ++ [0]) post ->
  parseString r = Ok (mkSlice (Some (lenN pre)) (lenN str), true, set_offset_raw r (lenN pre + lenN str + 1)).
Proof. exact string_roundtrip. Qed.
Print Assumptions C11_lex_roundtrip_string.

(** every name form: root / any number of parent prefixes, NullName, NameSeg, DualNamePath, MultiNamePath
    (fewer than 64 segments; a bare NameSeg starts with 'A'..'Z' or '_').  The []byte covers the whole encoding
    except a NullName terminator. *)
Theorem C11_lex_roundtrip_name : forall n r pre post,
  wf_name n -> at_token r pre (enc_name n) post ->
  parseNameString r = Ok (mkSlice (Some (lenN pre)) (name_slice_len n), true, set_offset_raw r (lenN pre + lenN (enc_name n))).
Proof. exact name_roundtrip. Qed.
Print Assumptions C11_lex_roundtrip_name.

(** every opcode of the generated opcode maps, one- and two-byte *)
Theorem C11_lex_roundtrip_opcode : forall op r pre post,
  valid_opcode op -> at_token r pre (enc_op op) post ->
  nextOpcode r = Ok (op, true, set_offset_raw r (lenN pre + lenN (enc_op op))).
Proof. exact opcode_roundtrip. Qed.
Print Assumptions C11_lex_roundtrip_opcode.

(** ---- the whole parser ---- *)

(** [parse_encode], the FULL statement of C11 over the model: for every well-formed sequence of tables
    ([wf_program]: admissible PkgLength widths, proper names, resolvable Scope directives and calls, declared argument
    counts, opcodes of the table with their arity), ParseAML of the encoded tables succeeds and the namespace view of
    the resulting tree (Aml/View.v: the children of a Device / Method / ... are those of its nested ScopeBlock) equals
    [ns p] (Aml/Grammar.v): every named object at its absolute path with kind and arguments in order, constants /
    strings / buffers / field units with their values, every call with callee and attached arguments. *)
Definition C11_full_parse_encode : Prop :=
  forall tables, wf_program tables = true -> parse_encode_statement tables.

(** [parse_encode] is FALSE for the current parser: one well-formed program per known finding
    (known_findings/C11.json) on which the faithful model either rejects the table or builds another namespace;
    the same programs are in corpus/C11 and fail the monitor on the real parser. *)
Theorem C11_parse_encode_refuted :
  Forall (fun p => wf_program p = true /\ ~ parse_encode_statement p)
    [w_path_through_device; w_caret_in_device; w_noncanonical_multiname; w_if_without_body;
     w_named_object_operator_arg; w_path_inside_named_object_arg; w_deferred_block_truncated;
     w_empty_buffer_in_deferred_block].
Proof. exact witnesses_all. Qed.
Print Assumptions C11_parse_encode_refuted.
