(** C15 — kernel/kfmt/fmt.go tied to the hand-written model BY TRANSLATION (statements; the proofs are short derivations from the
    theorems of Kfmt/FmtTrans.v).

    gen/gotrans (config gen/gotrans/kfmt_fmt.json, extension gen/gotrans/ext_fmt.go) regenerates
    Gen/Trans_kfmt_fmt.v from fmt.go on every run: [go_kfmt_fmtRepeat], [go_kfmt_fmtBool], [go_kfmt_fmtString],
    [go_kfmt_fmtInt] and [go_kfmt_Fprintf] (proofs for the latter: Kfmt/FmtTransScan.v).
    There the package-level buffers numFmtBuf / singleByte are fields of [go_kfmt_world], an interface{} value is a
    [gany] (Lib/GoOpsFmt.v), Go's int / int64 are two's complement representatives in [0, 2^64) ([sz] reads them as
    integers), [w : bool] says whether the io.Writer is non-nil, and every call doWrite(w, p) is the event
    [GCall "doWrite" [GNum (gref w); GBytes p]] pushed on the world's trace ([pushed w chunks trace]; [trace_bytes] is
    the concatenation of the byte slices in call order).  doWrite's 7-line body (doRealWrite / noEscape, unsafe) is
    below this seam: covered by the correspondence test and the allocation measurement of the check only.

    The theorems: for every input in their quantifier the model's function ([Kfmt.Fmt], what Props/C15.v is about)
    returns [Ok], and the regenerated function - with the stated fuel - returns [GOk] (no run-time panic, fuel
    suffices), has made exactly the model's Write calls, in order, and leaves the model's numFmtBuf.
    That is what the four helper theorems and C15_fprintf_is_translation state.  C15_fprintf_translation_bytes states less:
    its final trace [tr'] and numFmtBuf [buf'] are existentially quantified and only [trace_bytes tr'] - the
    concatenation of the byte slices of the events, which forgets the event name, the writer argument and how the bytes
    are split into Write calls - is tied to the model's output.  Side conditions of the Fprintf theorems: len(format),
    len(args) and every string argument shorter than 2^62 (2^63 for the strings of C15_fprintf_is_translation), integer
    arguments within their type, numFmtBuf of its declared length, fuel above len(format) + len(args) + len(output) + 34. *)
From Coq Require Import NArith ZArith String List.
From FF Require Import Lib.Word Lib.GoOps Lib.GoOpsFmt Gen.Consts_kfmt Gen.Trans_kfmt_fmt Kfmt.Fmt Kfmt.FmtSpec Kfmt.FmtTrans Kfmt.FmtTransScan.
Import ListNotations.
Local Open Scope N_scope.

(** fmtInt: EVERY value of every dynamic type (integers anywhere in the range of their type, and the non-integer
    types, which print the wrong-type marker), base 8 / 10 / 16, EVERY padLen (any 64-bit int: negative, or far beyond
    maxBufSize), any previous contents of the 33-byte numFmtBuf, any writer, fuel >= 34. *)
Theorem C15_fmtInt_is_translation :
  forall (fuel : nat) (w : bool) (tr : list gcall) (buf sb : list N) (g : gany) (base pad : N),
    length buf = N.to_nat kfmt_numFmtBufLen -> gany_wf g -> base = 8 \/ base = 10 \/ base = 16 -> pad < 2 ^ 64 ->
    (34 <= fuel)%nat ->
    exists cs buf',
      fmt_int buf (of_gany g) (Z.of_N base) (sz pad) = Ok (cs, buf') /\
      go_kfmt_fmtInt fuel (mk_go_kfmt_world tr buf sb) w g base pad
        = GOk (mk_go_kfmt_world (pushed w cs tr) buf' sb, tt) /\
      trace_bytes (pushed w cs tr) = trace_bytes tr ++ List.concat cs /\
      length buf' = N.to_nat kfmt_numFmtBufLen.
Proof.
  intros fuel w tr buf sb g base pad Hb Hg Hbase Hp Hf.
  destruct (fmtInt_is_translation fuel w tr buf sb g base pad Hb Hg Hbase Hp Hf) as [cs [buf' [E [T Hb']]]].
  exists cs, buf'. repeat split; [exact E|exact T|apply trace_bytes_pushed|exact Hb'].
Qed.
Print Assumptions C15_fmtInt_is_translation.

(** a base other than 8 / 10 / 16 leaves [divider] = 0; the first [uval % divider] is a division-by-zero panic in
    the translation and in the model alike (no caller passes such a base) *)
Theorem C15_fmtInt_bad_base_panics :
  forall (fuel : nat) (w : bool) (tr : list gcall) (buf sb : list N) (n pad : N),
    (1 <= fuel)%nat -> length buf = N.to_nat kfmt_numFmtBufLen ->
    go_kfmt_fmtInt fuel (mk_go_kfmt_world tr buf sb) w (GAU8 n) 7 pad = GPanic /\
    fmt_int buf (AInt U8 (Z.of_N n)) 7 (sz pad) = Panic DivZero.
Proof. exact fmtInt_bad_base_panics. Qed.
Print Assumptions C15_fmtInt_bad_base_panics.

(** fmtString: every dynamic type; a string / byte slice of any length Go can have, every padLen (the padding
    count padLen - len(s) wraps at 64 bits as in Go), fuel above len(s) and above the padding count *)
Theorem C15_fmtString_is_translation :
  forall (fuel : nat) (w : bool) (tr : list gcall) (buf : list N) (x : N) (g : gany) (pad : N),
    pad < 2 ^ 64 ->
    match g with
    | GAStr s | GABytes s =>
        glen s < 9223372036854775808 /\ (length s < fuel)%nat /\
        (Z.to_nat (wrap_int (sz pad - Z.of_nat (length s))) < fuel)%nat
    | _ => True
    end ->
    exists cs y,
      fmt_string (of_gany g) (sz pad) = Ok cs /\
      go_kfmt_fmtString fuel (mk_go_kfmt_world tr buf [x]) w g pad
        = GOk (mk_go_kfmt_world (pushed w cs tr) buf [y], tt) /\
      trace_bytes (pushed w cs tr) = trace_bytes tr ++ List.concat cs.
Proof.
  intros fuel w tr buf x g pad Hp Hg. destruct (fmtString_is_translation fuel w tr buf x g pad Hp Hg) as [cs [y [E T]]].
  exists cs, y. repeat split; [exact E|exact T|apply trace_bytes_pushed].
Qed.
Print Assumptions C15_fmtString_is_translation.

(** fmtBool: every dynamic type, no precondition at all *)
Theorem C15_fmtBool_is_translation :
  forall (w : bool) (tr : list gcall) (buf sb : list N) (g : gany),
    go_kfmt_fmtBool (mk_go_kfmt_world tr buf sb) w g
      = GOk (mk_go_kfmt_world (pushed w (fmt_bool (of_gany g)) tr) buf sb, tt) /\
    trace_bytes (pushed w (fmt_bool (of_gany g)) tr) = trace_bytes tr ++ List.concat (fmt_bool (of_gany g)).
Proof. intros. split; [apply fmtBool_is_translation|apply trace_bytes_pushed]. Qed.
Print Assumptions C15_fmtBool_is_translation.

(** fmtRepeat: every byte, every count (a negative count writes nothing), fuel above the count *)
Theorem C15_fmtRepeat_is_translation :
  forall (fuel : nat) (w : bool) (tr : list gcall) (buf : list N) (x ch cnt : N),
    cnt < 2 ^ 64 -> (Z.to_nat (sz cnt) < fuel)%nat ->
    fmt_repeat ch (sz cnt) = Ok (repeat [ch] (Z.to_nat (sz cnt))) /\
    go_kfmt_fmtRepeat fuel (mk_go_kfmt_world tr buf [x]) w ch cnt
      = GOk (mk_go_kfmt_world (pushed w (repeat [ch] (Z.to_nat (sz cnt))) tr) buf [ch], tt).
Proof. exact fmtRepeat_is_translation. Qed.
Print Assumptions C15_fmtRepeat_is_translation.

(** Fprintf: EVERY format string (any bytes: unknown verbs, a trailing '%', digit runs that wrap the 64-bit int) and
    EVERY argument list (values of [gany] within the range of their type, strings / byte slices of a length Go can
    have; too short, too long, mistyped), any contents of numFmtBuf, any singleByte, any writer [w]: the model's
    [fprintf] (the function of C15_fprintf_exact / C15_fprintf_never_panics) returns [Ok (cs, buf')] - [cs] the list of
    its Write calls - and with fuel above  len(format) + len(args) + len(bytes of cs) + 34  (the scanner makes at most
    len(format)+1 steps per loop, every padding / string step writes a byte, fmtInt needs 34) the regenerated Fprintf
    returns [GOk] - no run-time panic, no index out of range on format / args / numFmtBuf / singleByte, fuel
    suffices - and its world is EXACTLY: the old trace with the model's Write calls pushed on it in order, each as
    one doWrite event on THAT writer [w] with that chunk ([pushed w cs tr]: same event name, same writer, same
    chunking), numFmtBuf = the model's final buffer [buf'], singleByte holding one byte. *)
Theorem C15_fprintf_is_translation :
  forall (w : bool) (tr : list gcall) (buf : list N) (x : N) (fmt : list N) (gargs : list gany),
    length buf = N.to_nat kfmt_numFmtBufLen ->
    N.of_nat (length fmt) < 4611686018427387904 -> N.of_nat (length gargs) < 4611686018427387904 ->
    Forall gany_wf gargs -> Forall str_ok gargs ->
    exists cs buf',
      fprintf fmt (map of_gany gargs) buf = Ok (cs, buf') /\
      forall FU, (length fmt + length gargs + length (List.concat cs) + 34 < FU)%nat ->
        exists y,
          go_kfmt_Fprintf FU (mk_go_kfmt_world tr buf [x]) w fmt gargs
            = GOk (mk_go_kfmt_world (pushed w cs tr) buf' [y], tt).
Proof. exact fprintf_is_translation. Qed.
Print Assumptions C15_fprintf_is_translation.

(** the bytes-only corollary (weaker: it forgets the writer, the event names and the chunking): the concatenation of
    the bytes of the doWrite events, in call order, is the model's output [written (fprintf ..)] *)
Theorem C15_fprintf_translation_bytes :
  forall (w : bool) (tr : list gcall) (buf : list N) (x : N) (fmt : list N) (gargs : list gany),
    length buf = N.to_nat kfmt_numFmtBufLen ->
    N.of_nat (length fmt) < 4611686018427387904 -> N.of_nat (length gargs) < 4611686018427387904 ->
    Forall gany_wf gargs -> Forall str_ok gargs ->
    exists out,
      written (fprintf fmt (map of_gany gargs) buf) = Ok out /\
      forall FU, (length fmt + length gargs + length out + 34 < FU)%nat ->
        exists tr' buf' y,
          go_kfmt_Fprintf FU (mk_go_kfmt_world tr buf [x]) w fmt gargs = GOk (mk_go_kfmt_world tr' buf' [y], tt) /\
          trace_bytes tr' = trace_bytes tr ++ out.
Proof. exact fprintf_translation_bytes. Qed.
Print Assumptions C15_fprintf_translation_bytes.

(** ... composed with C15_fprintf_exact: for every WELL-FORMED format (the property's quantifier) the Write calls
    [cs] the regenerated Fprintf makes on [w] (exactly the model's, as above) carry exactly the specification's
    [render], and numFmtBuf ends as the model's buffer *)
Theorem C15_fprintf_translation_renders :
  forall (w : bool) (tr : list gcall) (buf : list N) (x : N) (ps : list piece) (gargs : list gany),
    length buf = N.to_nat kfmt_numFmtBufLen ->
    N.of_nat (length (encode ps)) < 4611686018427387904 -> N.of_nat (length gargs) < 4611686018427387904 ->
    Forall piece_wf ps -> Forall gany_wf gargs ->
    Forall (fun g => match g with GAStr s | GABytes s => glen s < 4611686018427387904 | _ => True end) gargs ->
    exists cs buf',
      fprintf (encode ps) (map of_gany gargs) buf = Ok (cs, buf') /\
      List.concat cs = render ps (map of_gany gargs) /\
      forall FU, (length (encode ps) + length gargs + length (render ps (map of_gany gargs)) + 34 < FU)%nat ->
        exists y,
          go_kfmt_Fprintf FU (mk_go_kfmt_world tr buf [x]) w (encode ps) gargs
            = GOk (mk_go_kfmt_world (pushed w cs tr) buf' [y], tt).
Proof. exact fprintf_trans_render. Qed.
Print Assumptions C15_fprintf_translation_renders.
