(** C16 — kfmt.SetOutputSink / kfmt.GetOutputSink tied by translation (statements only; proofs: Kfmt/SinkTrans.v).
    gen/gotrans (config kfmt_sink.json, gen/gotrans/ext_hal.go) regenerates Gen/Trans_kfmt_sink.v from
    kernel/kfmt/fmt.go on every run.  [outputSink] is a reference (0 = nil, terminal t = t + 1), [a] stands for
    &earlyPrintBuffer, and io.Copy - library code - is the event GCall "io.Copy" [GNum w; GNum a]; its contract (read
    the early ring buffer until EOF, hand every chunk to w.Write: "no boot log lost") is the model's
    [io_copy_contract] = [drain] + [deliver], whose Read is tied by translation (C16_ring_read_is_translation) and whose
    effect C16_ring_boot / C16_bringup prove.  kfmt.Printf (one line: Fprintf(outputSink, format, args...)) is not
    translated; the formatter is C15's subject (C15_fprintf_is_translation).
    The second conjunct of C16_setOutputSink_is_translation holds by unfolding - [io_copy_contract] is DEFINED as the rest
    of the model's [set_output_sink] - so it names the assumption about io.Copy, it does not prove it; the content of
    the theorem is the first conjunct: one store and exactly one io.Copy event.  No hypotheses. *)
From Coq Require Import NArith String List.
From FF Require Import Lib.Word Lib.GoOps Gen.Trans_kfmt_sink Kfmt.Fmt Hal.Model Kfmt.SinkTrans.
Import ListNotations.
Local Open Scope N_scope.

(** SetOutputSink(t) for a terminal: the regenerated code stores t in outputSink and makes exactly ONE call,
    io.Copy(t, &earlyPrintBuffer), unconditionally (also when the ring has wrapped or is empty); the model's
    [set_output_sink] is exactly: switch the sink, then that call's contract *)
Theorem C16_setOutputSink_is_translation :
  forall tr st t a,
    go_kfmt_SetOutputSink (to_ws tr st) (t + 1) a
      = GOk (to_ws (GCall "io.Copy" [GNum (t + 1); GNum a] :: tr) (set_sink st (STTY t)), tt) /\
    set_output_sink t st = io_copy_contract t (set_sink st (STTY t)).
Proof. exact setOutputSink_is_translation. Qed.
Print Assumptions C16_setOutputSink_is_translation.

Theorem C16_setOutputSink_nil_is_translation :
  forall tr st a, go_kfmt_SetOutputSink (to_ws tr st) 0 a = GOk (to_ws tr (set_sink st SRing), tt).
Proof. exact setOutputSink_nil. Qed.
Print Assumptions C16_setOutputSink_nil_is_translation.

(** whatever the copy delivers, afterwards the sink is the terminal and the devices are untouched *)
Theorem C16_setOutputSink_model :
  forall t st st', set_output_sink t st = Ok st' ->
    h_sink st' = STTY t /\ h_console st' = h_console st /\ h_tty st' = h_tty st /\ h_active st' = h_active st.
Proof. exact setOutputSink_model. Qed.
Print Assumptions C16_setOutputSink_model.

(** GetOutputSink: the early buffer while outputSink is nil, else the sink (what probe() hands to its PrefixWriter) *)
Theorem C16_getOutputSink_is_translation :
  forall tr st a, go_kfmt_GetOutputSink (to_ws tr st) a = GOk (to_ws tr st, sink_ref a (h_sink st)).
Proof. exact getOutputSink_is_translation. Qed.
Print Assumptions C16_getOutputSink_is_translation.

(** concrete runs *)
Example C16_sink_run :
  go_kfmt_SetOutputSink (mk_go_kfmt_world [] 0) 6 99 = GOk (mk_go_kfmt_world [GCall "io.Copy" [GNum 6; GNum 99]] 6, tt) /\
  go_kfmt_GetOutputSink (mk_go_kfmt_world [] 0) 99 = GOk (mk_go_kfmt_world [] 0, 99) /\
  go_kfmt_GetOutputSink (mk_go_kfmt_world [] 6) 99 = GOk (mk_go_kfmt_world [] 6, 6).
Proof. vm_compute. repeat split; reflexivity. Qed.
