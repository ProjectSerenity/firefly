(** C10 - tie of the multiboot decoder model to the source BY TRANSLATION.

    Gen/Trans_multiboot.v is regenerated on every run by gen/gotrans (config gen/gotrans/multiboot.json, feature
    "memstructs" = typed struct pointers into memory, gen/gotrans/ext_mb.go) from kernel/multiboot/multiboot.go:
    findTagByType, VisitMemRegions, GetFramebufferInfo, FramebufferInfo.RGBColorInfo, VisitElfSections.  In the translation a `*tagHeader`, `*mmapHeader`,
    `*MemoryMapEntry`, `*FramebufferInfo`, `*elfSections`, `*elfSection64` is an ADDRESS, `p.f` is a load of <size of f> bytes at p + <offset of f>
    ([gload], Lib/GoOps.v), `entry.Type = MemReserved` is a store; sizes and offsets are computed by the translator from
    the struct declarations by Go's layout rules and the generated file ends with `Example`s stating that they equal
    unsafe.Offsetof / unsafe.Sizeof as printed by the Go compiler (Gen/Consts_multiboot.v), so a layout change breaks
    the build.  The generated file is a Section over a memory type with a load and a store operation; here they are
    the model's memory (accessible segments, Multiboot/Model.v) with [mld] = the model's [rd] and [mst] = the model's
    [wr_bytes] (Multiboot/DecodeTrans.v): a load or store that touches a byte outside the segments is [None] =
    GPanic in the translation = [Stray] in the model.  infoData (a package variable that is only read) is the
    parameter [info]; `uintptr(int32(size+7) & ^7)` is translated as written (int32 truncation, complement at 32 bits,
    sign extension to 64 bits).

    The visitor passed to VisitMemRegions is a SEAM: each call `visitor(entry)` loads the three fields of the entry
    presented (PhysAddress, Length, Type - after the in-place normalisation of the type) and pushes the event
    [ev_region r] = GCall "visitor" [GNum addr; GNum len; GNum type] on the world's trace (most recent first); the
    boolean it returns is the oracle [o_visitor] applied to the trace that already holds the call.  The theorems
    instantiate the oracle with [vis_oracle cont k] = the model's [cont idx r] (idx = number of the call, counted
    from the k events already on the trace), i.e. with EVERY deterministic visitor that depends on the call number
    and the region presented - which is what the C10 model and theorems quantify over.

    Hypothesis [mem_bytes m] (all theorems): every cell of the memory is a byte (< 256).  The model's [rd] adds up
    whatever numbers the segments hold; Go's loads read bytes.  Every memory the harness builds satisfies it and
    stores preserve it.
    Further side conditions: C10_visitMemRegions_is_translation and C10_visitElfSections_is_translation speak only
    about runs of the model that END (outcome neither Hang nor Runaway: e.g. a memory-map entry size of 0 or a tag of size
    0 is outside them; only the two findTag theorems also identify Hang with GFuel) and need fuel >= find_fuel m, > the
    visitor call cap n, resp. >= total_len m + 1 and >= 2^16; the visitor is a deterministic function of call number and
    region.  The *_on_block theorems inherit the well-formedness of the WHOLE block (mbinfo_wf: also the command-line and
    framebuffer tags, block < 2 GiB) and the two-segment layout (layout_wf), not only of the tag they decode.

    ASSUMED / trusted: gen/gotrans incl. ext_mb.go; Lib/GoOps.v, Lib/GoOpsFmt.v ([gsext]); the seam's contract (the
    visitor reads the entry it is given and does not write the information block); little-endian loads.
    VisitElfSections builds the section name through a reflect.StringHeader: the string is the pair (Data, Len) of
    locals; handed to the visitor it is PRESENTED as the [Len] bytes at [Data] ([gldbytes], Lib/GoMb.v: no access for
    an empty string, otherwise one load of Len bytes); the call is the event [ev_section s] =
    GCall "visitor" [GBytes name; GNum flags; GNum address; GNum size]; this visitor returns nothing.
    NOT translated: GetBootCmdLine (a []byte over the block through a reflect.SliceHeader literal, then string(),
    strings.Fields, strings.Split and a map: library code; its only integer code is `size - 1`).  It stays tied by
    differential testing and source pins; so do the FIELD READS a caller makes through the pointers returned by
    GetFramebufferInfo / RGBColorInfo (kernel/device/video/console; the model's [read_fb] makes them).
    Statements only; proofs in Multiboot/DecodeTrans.v, Multiboot/DecodeTransElf.v and Multiboot/DecodeTransBlock.v. *)
From Coq Require Import String NArith List Bool.
From FF Require Import Lib.Word Lib.GoOps Gen.Consts_multiboot Gen.Trans_multiboot Multiboot.Model Multiboot.Spec
  Multiboot.FindProofs Multiboot.AfterVisit.
From FF Require Multiboot.DecodeTrans Multiboot.DecodeTransElf Multiboot.DecodeTransBlock.
Module T := FF.Multiboot.DecodeTrans.
Module TE := FF.Multiboot.DecodeTransElf.
Module TB := FF.Multiboot.DecodeTransBlock.
Import ListNotations.
Local Open Scope N_scope.

(** findTagByType: for EVERY memory of bytes, info pointer and wanted type the regenerated function run with the
    model's fuel is the model's [find_tag] - the function C10_find_tag is about: same (payload address, payload
    size) or (0, 0); [Stray] exactly where the Go code would fault (GPanic); the world is returned unchanged *)
Theorem C10_findTag_is_translation :
  forall (w : @go_multiboot_world mem) (ty info : N),
    T.mem_bytes (f_world_mem w) ->
    go_multiboot_findTagByType T.mld (find_fuel (f_world_mem w)) w ty info =
      match find_tag (f_world_mem w) info ty with
      | Ok r => GOk (w, r)
      | Stray => GPanic
      | Hang => GFuel
      | Runaway => GFuel
      end.
Proof. exact T.findTag_is_translation. Qed.
Print Assumptions C10_findTag_is_translation.

(** ... and for every fuel: the translated loop and the model's walk use fuel in the same way (one unit per tag
    header inspected), so "out of fuel" coincides too *)
Theorem C10_findTag_is_translation_any_fuel :
  forall (fuel : nat) (w : @go_multiboot_world mem) (ty info : N),
    T.mem_bytes (f_world_mem w) ->
    go_multiboot_findTagByType T.mld fuel w ty info =
      match find_tag_loop fuel (f_world_mem w) (padd info mb_sizeof_info) ty with
      | Ok r => GOk (w, r)
      | Stray => GPanic
      | Hang => GFuel
      | Runaway => GFuel
      end.
Proof. exact T.findTag_is_translation_fuel. Qed.
Print Assumptions C10_findTag_is_translation_any_fuel.

(** VisitMemRegions: whenever the model's run (visitor call cap [n]) ends - normally or with a stray access -, the
    regenerated function, given at least the model's fuel for the tag walk and more than [n], ends the same way:
    GPanic for [Stray]; otherwise the memory the model leaves (the in-place type normalisations) and, on the trace,
    exactly the model's list of regions seen by the visitor, in order (most recent first), on top of what was there *)
Theorem C10_visitMemRegions_is_translation :
  forall (fuel n : nat) (cont : N -> region -> bool) (t0 : list gcall) (m : mem) (info : N),
    T.mem_bytes m -> (find_fuel m <= fuel)%nat -> (n < fuel)%nat ->
    snd (visit_mem_regions n cont m info) <> Hang -> snd (visit_mem_regions n cont m info) <> Runaway ->
    go_multiboot_VisitMemRegions T.mld T.mst fuel (T.mkw t0 m) info (T.vis_oracle cont (N.of_nat (length t0))) =
      match visit_mem_regions n cont m info with
      | (m', rs, Ok _) => GOk (T.mkw (rev (map T.ev_region rs) ++ t0) m', tt)
      | _ => GPanic
      end.
Proof. exact T.visit_is_translation. Qed.
Print Assumptions C10_visitMemRegions_is_translation.

(** GetFramebufferInfo: the address of the first framebuffer tag's payload, nil (0) when there is none *)
Theorem C10_getFramebufferInfo_is_translation :
  forall (w : @go_multiboot_world mem) (info : N),
    T.mem_bytes (f_world_mem w) ->
    go_multiboot_GetFramebufferInfo T.mld (find_fuel (f_world_mem w)) w info =
      match get_framebuffer_info (f_world_mem w) info with
      | Ok (Some p) => GOk (w, p)
      | Ok None => GOk (w, 0)
      | Stray => GPanic
      | Hang => GFuel
      | Runaway => GFuel
      end.
Proof. exact T.getFramebufferInfo_is_translation. Qed.
Print Assumptions C10_getFramebufferInfo_is_translation.

(** FramebufferInfo.RGBColorInfo: a fault if the type byte cannot be read, nil unless the type is RGB, else the address
    of the dummy field colorInfo (offset computed from the struct declaration, checked against unsafe.Offsetof) *)
Theorem C10_rgbColorInfo_is_translation :
  forall (w : @go_multiboot_world mem) (p : N),
    T.mem_bytes (f_world_mem w) ->
    go_multiboot_FramebufferInfo_RGBColorInfo T.mld w p =
      match rd (f_world_mem w) (padd p mb_off_FramebufferInfo_Type) 1 with
      | Ok t => GOk (w, if t =? mb_FramebufferTypeRGB then padd p mb_off_FramebufferInfo_colorInfo else 0)
      | _ => GPanic
      end.
Proof. exact T.rgbColorInfo_is_translation. Qed.
Print Assumptions C10_rgbColorInfo_is_translation.

(** ... and the model's [read_fb] - the function C10_framebuffer is about - reads the six colour-layout bytes exactly
    at the pointer the regenerated RGBColorInfo returns, and reports no layout exactly when it returns nil *)
Theorem C10_read_fb_uses_rgbColorInfo :
  forall (t0 : list gcall) (m : mem) (p : N) (f : fbinfo),
    T.mem_bytes m -> read_fb m p = Ok f ->
    match fb_rgb f with
    | Some c => go_multiboot_FramebufferInfo_RGBColorInfo T.mld (T.mkw t0 m) p =
                  GOk (T.mkw t0 m, padd p mb_off_FramebufferInfo_colorInfo) /\
                rd_each m (padd p mb_off_FramebufferInfo_colorInfo) rgb_offsets = Ok c
    | None => go_multiboot_FramebufferInfo_RGBColorInfo T.mld (T.mkw t0 m) p = GOk (T.mkw t0 m, 0)
    end.
Proof. exact T.read_fb_rgb_at. Qed.
Print Assumptions C10_read_fb_uses_rgbColorInfo.

(** VisitElfSections: whenever the model's run ends - normally or with a stray access - the regenerated function,
    given the model's fuel for the tag walk and for the name scans and at least 2^16 (numSections is a uint16),
    ends the same way: GPanic for [Stray], otherwise the memory untouched and on the trace exactly the model's list
    of non-empty sections (name bytes, flags cut to 32 bits, address, size), in order, most recent first.  As in the
    Go code numSections and the string table's address field are re-read on every iteration. *)
Theorem C10_visitElfSections_is_translation :
  forall (fuel : nat) (t0 : list gcall) (m : mem) (info : N),
    T.mem_bytes m -> (find_fuel m <= fuel)%nat -> (S (total_len m) <= fuel)%nat -> 65536 <= N.of_nat fuel ->
    snd (visit_elf_sections m info) <> Hang -> snd (visit_elf_sections m info) <> Runaway ->
    go_multiboot_VisitElfSections T.mld fuel (T.mkw t0 m) info =
      match visit_elf_sections m info with
      | (rs, Ok _) => GOk (T.mkw (rev (map TE.ev_section rs) ++ t0) m, tt)
      | _ => GPanic
      end.
Proof. exact TE.visitElf_is_translation. Qed.
Print Assumptions C10_visitElfSections_is_translation.

(** stores keep the memory a memory of bytes (so the hypothesis of the theorems holds again after a scan) *)
Theorem C10_trans_store_keeps_bytes :
  forall (m : mem) (n a v : N) (m' : mem), T.mem_bytes m -> T.mst m n a v = Some m' -> T.mem_bytes m'.
Proof. exact T.mst_bytes. Qed.
Print Assumptions C10_trans_store_keeps_bytes.

(** a well-formed block, placed, is a memory of bytes: the hypothesis [mem_bytes] of the theorems above holds *)
Theorem C10_trans_block_is_bytes :
  forall (l : layout) (mb : mbinfo),
    mbinfo_wf (l_saddr l) (l_strtab l) mb -> layout_wf l (encode mb) -> T.mem_bytes (mem_of l (encode mb)).
Proof. exact TB.block_mem_bytes. Qed.
Print Assumptions C10_trans_block_is_bytes.

(** Composition with C10_find_tag: on every well-formed block the REGENERATED findTagByType returns the payload
    address and size of the first tag of the wanted type, (0,0) if there is none, and never faults *)
Theorem C10_findTag_translation_on_block :
  forall (l : layout) (mb : mbinfo) (ty : N) (t0 : list gcall),
    mbinfo_wf (l_saddr l) (l_strtab l) mb -> layout_wf l (encode mb) -> ty <> 0 ->
    go_multiboot_findTagByType T.mld (find_fuel (mem_of l (encode mb))) (T.mkw t0 (mem_of l (encode mb))) ty (l_info l) =
      GOk (T.mkw t0 (mem_of l (encode mb)),
           match locate ty (mb_tags mb) 8 with
           | Some (o, t) => (l_info l + o + 8, len (payload t))
           | None => (0, 0)
           end).
Proof. exact TB.findTag_on_block. Qed.
Print Assumptions C10_findTag_translation_on_block.

(** Composition with C10_mem_regions_memory: on every well-formed block the REGENERATED VisitMemRegions calls the
    visitor exactly for the regions of the first memory map, in order, types outside {1,2,3,4} presented as
    reserved, up to and including the first call answered false ([visited]); it never faults, and leaves the
    encoding of [after_visit cont mb] in memory.  This is the contract of multiboot.VisitMemRegions that the C02
    tie (Props/C02_trans.v: BootMemAllocator.AllocFrame over the sequence [regions] the visitor presents) assumes. *)
Theorem C10_visitMemRegions_translation_on_block :
  forall (l : layout) (mb : mbinfo) (cont : N -> region -> bool) (t0 : list gcall) (fuel : nat),
    mbinfo_wf (l_saddr l) (l_strtab l) mb -> layout_wf l (encode mb) ->
    (find_fuel (mem_of l (encode mb)) <= fuel)%nat -> (S (length (expected_regions mb)) < fuel)%nat ->
    go_multiboot_VisitMemRegions T.mld T.mst fuel (T.mkw t0 (mem_of l (encode mb))) (l_info l)
        (T.vis_oracle cont (N.of_nat (length t0))) =
      GOk (T.mkw (rev (map T.ev_region (visited cont 0 (expected_regions mb))) ++ t0)
                 (mem_of l (encode (after_visit cont mb))), tt).
Proof. exact TB.visitMemRegions_on_block. Qed.
Print Assumptions C10_visitMemRegions_translation_on_block.

(** Composition with C10_elf_sections: on every well-formed block the REGENERATED VisitElfSections calls the visitor
    exactly for the non-empty sections of the first ELF tag, in order, with the name read from the string table, and
    never faults *)
Theorem C10_visitElfSections_translation_on_block :
  forall (l : layout) (mb : mbinfo) (t0 : list gcall) (fuel : nat),
    mbinfo_wf (l_saddr l) (l_strtab l) mb -> layout_wf l (encode mb) ->
    (find_fuel (mem_of l (encode mb)) <= fuel)%nat -> (S (total_len (mem_of l (encode mb))) <= fuel)%nat ->
    65536 <= N.of_nat fuel ->
    go_multiboot_VisitElfSections T.mld fuel (T.mkw t0 (mem_of l (encode mb))) (l_info l) =
      GOk (T.mkw (rev (map TE.ev_section (expected_sections (l_strtab l) mb)) ++ t0) (mem_of l (encode mb)), tt).
Proof. exact TB.visitElfSections_on_block. Qed.
Print Assumptions C10_visitElfSections_translation_on_block.
