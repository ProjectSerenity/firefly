(** C14 — only checksum-valid ACPI tables are registered, found via the right root pointer.
    Statements; the proofs are lemmas of Acpi/*Proofs.v, exacted or instantiated.

    Vocabulary (Acpi/Spec.v; [seam_ok], [seam_failed], [aborted_at], [visits], [reports] are defined in
    Acpi/AbortProofs.v): [mem] firmware memory, a partial map address -> byte;
    [bytes_at m a bs] the image holds bytes bs at a, a+1, ...; [sums_to_zero m a len];
    [rsdp_accepted m a root useXSDT] / [rsdp_rejected m a] what an aligned slot holds (ACPI lengths:
    20 bytes for revision 0, 36 bytes otherwise; pointer RsdtAddress (32 bit) / XsdtAddress (64 bit));
    [tbl_good m t] the bytes of the table at t sum to 0 modulo 256, [tbl_bad m t len] they do not;
    [root_lists m root len useXSDT es] the root table lists es (4- or 8-byte entries);
    [candidate m rootRev es t] t is listed, or is the DSDT a checksum-valid listed FADT points to;
    [walk] (enumeration order).  The model (Acpi/Model.v) is the one the harness runs. *)
From Coq Require Import NArith List.
From FF Require Import Lib.Word Gen.Consts_device_acpi Acpi.Model Acpi.Spec
  Acpi.BytesProofs Acpi.ProbeProofs Acpi.EnumProofs Acpi.RegProofs Acpi.AbortProofs.
Import ListNotations.
Local Open Scope N_scope.

(** For every firmware memory, window and alignment (no wrap-around of the scan): what the probe
    returns is decided by the first aligned slot of the window that is not a rejected candidate.
    * it returns a root table iff that slot holds a root pointer whose signature matches and whose
      checksum over the length its revision dictates (20 bytes for revision 0, else the 36 bytes of
      the ACPI structure) is 0, and then it returns the 32-bit RsdtAddress with useXSDT = false for
      revision 0 and the 64-bit XsdtAddress with useXSDT = true otherwise; every aligned slot before
      it (decoys with a bad checksum, other data) was rejected;
    * it returns errMissingRSDP iff every aligned slot of the window is rejected;
    * a stray read is reported as such: it happens only at a slot that is neither (bytes missing). *)
Theorem C14_rsdp_found :
  forall (m : mem) (low hi align : N), 0 < align -> hi + align <= two64 ->
    match fst (fst (locateRSDT m low hi align None)) with
    | PFound root useXSDT =>
        exists a, in_window low hi align a /\ rsdp_accepted m a root useXSDT /\
                  forall a', in_window low hi align a' -> a' < a -> rsdp_rejected m a'
    | PMissing => forall a, in_window low hi align a -> rsdp_rejected m a
    | PStray _ =>
        exists a, in_window low hi align a /\
                  ~ rsdp_rejected m a /\ (forall root x, ~ rsdp_accepted m a root x) /\
                  forall a', in_window low hi align a' -> a' < a -> rsdp_rejected m a'
    | PMapErr | PFuel => False
    end.
Proof. exact rsdp_found_sound. Qed.
Print Assumptions C14_rsdp_found.

(** ... and conversely: a checksum-valid root pointer at an aligned slot, all earlier slots being
    rejected, IS found (wherever it sits), with the pointer width its revision dictates; a window
    without one yields errMissingRSDP. *)
Theorem C14_rsdp_found_complete :
  forall (m : mem) (low hi align : N), 0 < align -> hi + align <= two64 ->
    (forall a root useXSDT, in_window low hi align a -> rsdp_accepted m a root useXSDT ->
        (forall a', in_window low hi align a' -> a' < a -> rsdp_rejected m a') ->
        fst (fst (locateRSDT m low hi align None)) = PFound root useXSDT) /\
    ((forall a, in_window low hi align a -> rsdp_rejected m a) ->
        fst (fst (locateRSDT m low hi align None)) = PMissing).
Proof. exact rsdp_found_complete. Qed.
Print Assumptions C14_rsdp_found_complete.

(** validTable is the byte sum: true iff all [len] bytes are there and sum to 0 modulo 256. *)
Theorem C14_valid_table :
  forall (m : mem) (a len : N),
    (validTable m a len = Got true <-> sums_to_zero m a len) /\
    (validTable m a len = Got false <-> sums_to_nonzero m a len).
Proof. intros m a len. exact (conj (validTable_true m a len) (validTable_false m a len)). Qed.
Print Assumptions C14_valid_table.

(** After DriverInit succeeds (any firmware image, any number and order of tables, 4- or 8-byte
    entries): the root table is checksum-valid and lists [es]; [tableMap sg = Some t] only if t is a
    candidate (listed by the root table, or the DSDT a checksum-valid listed FADT points to) whose
    signature is sg and whose bytes sum to 0; with distinct signatures, if and only if.  The
    checksum-mismatch reports are exactly the candidates whose bytes do not sum to 0: each report
    names such a table, every such table is reported, once if the visited tables are pairwise
    different; all candidates are visited (a bad table does not stop the enumeration). *)
Theorem C14_registered_iff :
  forall (m : mem) (fail : N -> bool) (root : N) (useXSDT : bool) (s : state) (info : list event),
    bytes_ok m -> root < two64 -> no_seam_failure fail ->
    (forall len, tbl_len m root len -> 36 <= len) ->
    driverInit m fail root useXSDT = (s, IOk, info) ->
    exists len rootRev es vs ev,
      tbl_len m root len /\ sums_to_zero m root len /\ m (w64 (root + 8)) = Some rootRev /\
      root_lists m root len useXSDT es /\
      (forall sg t, lookup sg (st_tmap s) = Some t ->
                    candidate m rootRev es t /\ tbl_sig m t sg /\ tbl_good m t) /\
      (distinct_signatures m rootRev es ->
         forall sg t, lookup sg (st_tmap s) = Some t <->
                      (candidate m rootRev es t /\ tbl_sig m t sg /\ tbl_good m t)) /\
      st_events s = List.rev ev /\
      (forall t, In t vs <-> candidate m rootRev es t) /\
      (forall e, In e ev -> exists sg len, e = EvMismatch sg (ev_addr e) len /\ In (ev_addr e) vs /\
                                            tbl_bad m (ev_addr e) len /\ tbl_sig m (ev_addr e) sg) /\
      (forall t len, In t vs -> tbl_bad m t len -> In t (map ev_addr ev)) /\
      (NoDup vs -> NoDup (map ev_addr ev)).
Proof. exact driverInit_registered. Qed.
Print Assumptions C14_registered_iff.

(** The enumeration in order: success of enumerateTables yields a [walk] over the listed tables
    that accounts for every registration and every report, oldest first. *)
Theorem C14_enumeration_order :
  forall (m : mem) (fail : N -> bool) (root : N) (useXSDT : bool) (s : state),
    bytes_ok m -> root < two64 -> no_seam_failure fail ->
    enumerateTables m fail root useXSDT = (s, IOk) ->
    exists len rootRev es vs ev regs,
      tbl_len m root len /\ sums_to_zero m root len /\ m (w64 (root + 8)) = Some rootRev /\
      (36 <= len -> root_lists m root len useXSDT es) /\
      walk m rootRev es vs ev regs /\
      st_events s = List.rev ev /\ st_tmap s = List.rev regs.
Proof. intros m fail root useXSDT s Hok Hroot _. exact (enumerate_sound m fail root useXSDT s Hok Hroot). Qed.
Print Assumptions C14_enumeration_order.

(** Bad tables are skipped without stopping: whenever the root table is checksum-valid and every
    table on the way is readable (a [walk] exists — tables with a bad sum included, at any position),
    enumerateTables succeeds, reports exactly the walk's mismatches and registers exactly its
    registrations. *)
Theorem C14_enumeration_continues :
  forall (m : mem) (fail : N -> bool) (root : N) (useXSDT : bool) len rootRev es vs ev regs,
    bytes_ok m -> root < two64 -> no_seam_failure fail ->
    tbl_len m root len -> sums_to_zero m root len -> 36 <= len ->
    m (w64 (root + 8)) = Some rootRev ->
    root_lists m root len useXSDT es -> walk m rootRev es vs ev regs ->
    exists s, enumerateTables m fail root useXSDT = (s, IOk) /\
              st_events s = List.rev ev /\ st_tmap s = List.rev regs.
Proof. exact enumerate_complete. Qed.
Print Assumptions C14_enumeration_continues.

(** The kernel's structs are the ACPI ones where the property depends on it: signature, revision
    and pointer offsets, 20 / 36 byte checksum lengths (the 36 is the named constant extRSDPLength of
    acpi.go; unsafe.Sizeof(ExtRSDPDescriptor{}) is 40), 16-byte alignment, the BIOS window. *)
Theorem C14_layout_constants :
  acpi_rsdpSignature = rsdp_signature /\ acpi_off_RSDP_Revision = 15 /\
  acpi_sizeof_RSDPDescriptor = 20 /\ acpi_extRSDPLength = 36 /\
  acpi_off_RSDP_RSDTAddr = 16 /\ acpi_off_ExtRSDP_XSDTAddr = 24 /\
  acpi_rsdpAlignment = 16 /\ acpi_rsdpLocationLow = 0xe0000 /\ acpi_rsdpLocationHi = 0xfffff /\
  acpi_sizeof_SDTHeader = 36 /\ acpi_off_SDT_Length = 4 /\ acpi_fadtSignature = FACP.
Proof. repeat split; reflexivity. Qed.
Print Assumptions C14_layout_constants.

(** A mapping-seam failure aborts DriverInit with that error (whatever the failure pattern [fail]):
    the last identityMapFn call made is the first one that failed — nothing is mapped or visited
    after it — printTableInfo is not reached, and either the failure hit the root table (nothing
    registered, nothing reported) or it hit entry t of the root table (extra = []) or the DSDT of the
    checksum-valid FADT t (extra = [(FACP, t)]): the entries before t were walked exactly as in a
    successful enumeration, their registrations and reports stay as [walk] on that prefix says. *)
Theorem C14_map_error_aborts :
  forall (m : mem) (fail : N -> bool) (root : N) (useXSDT : bool) (s : state) (info : list event),
    bytes_ok m -> root < two64 ->
    driverInit m fail root useXSDT = (s, IErrMap, info) ->
    info = [] /\ seam_failed fail (st_seam s) /\
    ( (st_tmap s = [] /\ st_events s = [])
      \/
      exists len rootRev es pre t post vs ev regs extra,
        tbl_len m root len /\ sums_to_zero m root len /\ m (w64 (root + 8)) = Some rootRev /\
        (36 <= len -> root_lists m root len useXSDT es) /\
        es = pre ++ t :: post /\ walk m rootRev pre vs ev regs /\ aborted_at m rootRev t extra /\
        st_events s = List.rev ev /\ st_tmap s = List.rev (regs ++ extra) ).
Proof.
  intros m fail root useXSDT s info Hok Hroot H. apply driverInit_err in H. destruct H as [He ->].
  split; [reflexivity|]. exact (enumerate_by_result m fail root useXSDT s IErrMap Hok Hroot He).
Qed.
Print Assumptions C14_map_error_aborts.

(** Conversely a successful enumeration made no identityMapFn call that failed. *)
Theorem C14_success_no_seam_failure :
  forall (m : mem) (fail : N -> bool) (root : N) (useXSDT : bool) (s : state),
    bytes_ok m -> root < two64 ->
    enumerateTables m fail root useXSDT = (s, IOk) -> seam_ok fail (st_seam s).
Proof. intros m fail root useXSDT s Hok Hroot H. exact (proj1 (enumerate_by_result m fail root useXSDT s IOk Hok Hroot H)). Qed.
Print Assumptions C14_success_no_seam_failure.

(** The reports: after a successful DriverInit the checksum-mismatch events are, in enumeration
    order, exactly one per visited table whose bytes do not sum to 0 — the listed tables in the
    root table's order, the DSDT directly after its checksum-valid FADT ([visits]) — each carrying
    that table's signature, address and length field, as the log line
    "<sig> at 0x<addr> <len> [checksum mismatch; skipping]" does; tables that sum to 0 produce none
    ([reports]); both lists are determined by the image. *)
Theorem C14_reports_in_order :
  forall (m : mem) (fail : N -> bool) (root : N) (useXSDT : bool) (s : state) (info : list event),
    bytes_ok m -> root < two64 -> no_seam_failure fail ->
    driverInit m fail root useXSDT = (s, IOk, info) ->
    exists rootRev es vs ev,
      m (w64 (root + 8)) = Some rootRev /\
      (forall len, tbl_len m root len -> 36 <= len -> root_lists m root len useXSDT es) /\
      visits m rootRev es vs /\ reports m vs ev /\ st_events s = List.rev ev /\
      (forall vs', visits m rootRev es vs' -> vs' = vs) /\
      (forall ev', reports m vs ev' -> ev' = ev).
Proof. exact reports_in_order. Qed.
Print Assumptions C14_reports_in_order.
