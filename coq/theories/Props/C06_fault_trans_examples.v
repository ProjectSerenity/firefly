(** Non-vacuity of C06_fault_handler_is_translation and concrete runs of the regenerated handler (Gen/Trans_vmm_fault.v)
    by [vm_compute]: a copy-on-write fault on a page that shares frame 0x130 (recovered: private copy in the next free
    frame, RW set, CoW cleared, flushed, no panic), the same fault with the allocator exhausted (kernel panic with the
    allocator's error, page untouched), a fault on a page that is not copy-on-write and one on an unmapped page (kernel
    panic with errUnrecoverableFault, nothing changed). *)
From Coq Require Import NArith String List Bool.
From FF Require Import Lib.Word Lib.GoOps Gen.Consts_mm_vmm Gen.Trans_vmm_fault Vmm.Pt Vmm.PtMem Vmm.PtAccess.
From FF Require Vmm.FaultTrans Vmm.MapTrans Vmm.PdtTrans.
Module F := FF.Vmm.FaultTrans.
Module M := FF.Vmm.MapTrans.
Module T := FF.Vmm.PdtTrans.
Import ListNotations.
Local Open Scope N_scope.

Definition boot : st := init_state 0x100 64 0 [0x101; 0x102; 0x103; 0x104; 0x105; 0x106; 0x107; 0x108].
Definition PG : N := 0x7f0000123.
Definition CoW_flags : N := 0x201.   (* Present | CopyOnWrite *)
Definition st_of (r : R (st * N)) : st := match r with Ok (s', _) => s' | Stray => boot end.
(** the page shows frame 0x130 read-only, copy-on-write *)
Definition s1 : st := st_of (map_page PG 0x130 CoW_flags boot).
Definition ADDR : N := frame_addr PG + 0x7ab.
Definition REGS : N := 0xdead000.

Definition run (s : st) (addr : N) :=
  F.fres (go_vmm_pageFaultHandler (mk_go_vmm_world [] s) REGS T.o_flush F.o_memcopy T.o_maptemp M.o_alloc F.o_nonrec (F.o_cr2 addr) T.o_unmap).
Definition obs (r : gres (st * option (list garg))) :=
  match r with GOk (s', p) => Some (digest s', p, walk_root s' hw_levels (N.shiftr (cr3 s') 12) PG) | _ => None end.

Lemma s1_w64 : T.mem_w64 s1.
Proof.
  unfold s1. destruct (map_page PG 0x130 CoW_flags boot) as [[s' e]|] eqn:E; cbn [st_of].
  - refine (proj2 (proj2 (T.map_page_keeps _ _ _ _ _ _ _ E)) _); [reflexivity | apply T.init_state_w64; reflexivity].
  - apply T.init_state_w64. reflexivity.
Qed.

From FF Require Vmm.PtInit Vmm.PtMap Vmm.PtFault Vmm.PtTheorems Vmm.StableInvFault.

Lemma boot_inv : PtMap.Inv boot 0x100 0x100 (PtInit.own_root 0x100).
Proof.
  apply PtInit.Inv_init; [reflexivity | vm_compute; discriminate | |].
  - vm_compute. repeat constructor; cbn; intuition discriminate.
  - intros f Hin Hz. cbn in Hin. repeat (destruct Hin as [<-|Hin]; [vm_compute; split; reflexivity|]). destruct Hin.
Qed.

(* [s1] lies in the domain of the C06 theorems: the invariant holds (by C04's map_ok from the boot state), and the frame
   its copy-on-write page shows is backed, is no page table and is not in the allocator's hands *)
Lemma s1_inv :
  exists own, PtMap.Inv s1 0x100 0x100 own /\
    (forall e, PtFault.cow_pre s1 0x100 (page_from_addr ADDR) = Some e ->
       backed s1 (hw_frame e) = true /\ own (hw_frame e) = None /\ ~ In (hw_frame e) (orc s1)).
Proof.
  assert (H511 : hw_idx PG 0 <> 511) by (vm_compute; discriminate).
  destruct (PtTheorems.map_ok boot 0x100 0x100 (PtInit.own_root 0x100) PG 0x130 CoW_flags boot_inv H511 eq_refl)
    as (s' & err & own' & Hrun & HI' & _ & _ & _ & _ & _ & _ & (n & Horc & Hown) & _).
  assert (Es : s1 = s') by (unfold s1; rewrite Hrun; reflexivity).
  exists own'. split; [rewrite Es; exact HI'|].
  assert (Hc : PtFault.cow_pre s1 0x100 (page_from_addr ADDR) = Some 0x130201) by (vm_compute; reflexivity).
  intros e He. rewrite Hc in He. injection He as <-.
  change (hw_frame 0x130201) with 0x130.
  split; [vm_compute; reflexivity|]. split.
  - destruct (Hown 0x130) as [-> | (_ & Hin & _)]; [reflexivity|].
    exfalso. apply PtMap.in_firstn in Hin. cbn in Hin. intuition discriminate.
  - vm_compute. intuition discriminate.
Qed.

Example C06_fault_handler_is_translation_nonvacuous :
  ADDR < two64 /\ T.mem_w64 s1 /\ F.fault_stable ADDR s1.
Proof.
  split; [reflexivity|]. split; [exact s1_w64|].
  destruct s1_inv as (own & HI & Hd).
  apply (StableInvFault.fault_stable_inv s1 0x100 own ADDR HI); [vm_compute; discriminate | vm_compute; discriminate | exact Hd].
Qed.

(** the recovered fault: the page now shows the fresh frame 0x104 (the first three oracle frames became its tables) with
    Present | RW, CoW cleared; no kernel panic; the result is the model's *)
Example cow_fault_run :
  obs (run s1 ADDR) = Some (digest (st_of (page_fault ADDR s1)), None, (3, 0x104003))
  /\ (match page_fault ADDR s1 with Ok (_, out) => Some out | Stray => None end) = Some 0
  /\ walk_root s1 hw_levels (N.shiftr (cr3 s1) 12) PG = (3, 0x130201).
Proof. set (r := page_fault ADDR s1). vm_compute. repeat split. Qed.

(** allocator exhausted: kernel panic with the allocator's error; the page is what it was *)
Example cow_fault_alloc_failure_run :
  obs (run (set_orc s1 []) ADDR)
  = Some (digest s1, Some [GNum ADDR; GNum REGS; err_arg (Some "errAllocFrame"%string)], (3, 0x130201))
  /\ (match page_fault ADDR (set_orc s1 []) with Ok (_, out) => Some out | Stray => None end) = Some (PANIC + E_ALLOC).
Proof. vm_compute. split; reflexivity. Qed.

(** a write fault on a page that is mapped read-only WITHOUT the CoW flag, and a fault on an unmapped page: kernel
    panic with errUnrecoverableFault, nothing touched *)
Example plain_ro_fault_run :
  let s := st_of (map_page PG 0x130 1 boot) in
  obs (run s ADDR) = Some (digest s, Some [GNum ADDR; GNum REGS; err_arg (Some "errUnrecoverableFault"%string)], (3, 0x130001)).
Proof. vm_compute. reflexivity. Qed.

Example unmapped_fault_run :
  obs (run boot ADDR) = Some (digest boot, Some [GNum ADDR; GNum REGS; err_arg (Some "errUnrecoverableFault"%string)], (0, 0))
  /\ (match page_fault ADDR boot with Ok (_, out) => Some out | Stray => None end) = Some (PANIC + E_FAULT).
Proof. vm_compute. split; reflexivity. Qed.

(** a page that is already writable (RW | CoW both set): not recoverable either *)
Example rw_cow_fault_run :
  let s := st_of (map_page PG 0x130 0x203 boot) in
  obs (run s ADDR) = Some (digest s, Some [GNum ADDR; GNum REGS; err_arg (Some "errUnrecoverableFault"%string)], (3, 0x130203)).
Proof. vm_compute. reflexivity. Qed.

(** ---- the general corollary: the boot state satisfies the invariant; a fault on an unmapped page is in its domain ---- *)
Example C06_fault_handler_is_translation_inv_nonvacuous :
  PtMap.Inv boot 0x100 0x100 (PtInit.own_root 0x100) /\ ADDR < two64 /\ T.mem_w64 boot /\
  hw_idx (page_from_addr ADDR) 0 <> 511 /\ ~ PtTheorems.same_page (page_from_addr ADDR) temp_page /\
  (forall e, PtFault.cow_pre boot 0x100 (page_from_addr ADDR) = Some e ->
     backed boot (hw_frame e) = true /\ PtInit.own_root 0x100 (hw_frame e) = None /\ ~ In (hw_frame e) (orc boot)).
Proof.
  split; [exact boot_inv|].
  split; [reflexivity|]. split; [apply T.init_state_w64; reflexivity|].
  split; [vm_compute; discriminate|]. split; [vm_compute; discriminate|].
  intros e He. vm_compute in He. discriminate.
Qed.

(** the hypotheses of C06_fault_handler_is_translation_inv hold TOGETHER at a state with a live copy-on-write
    page ([s1]: page PG shows the data frame 0x130 read-only + CoW), i.e. on the recoverable path, not only at an
    unmapped page: the invariant holds for [s1] (by C04's map_ok from the boot state), [cow_pre] is [Some _], and the
    frame it shows is backed, is no page table and is not in the allocator's hands. *)
Example C06_fault_handler_is_translation_inv_real_input :
  exists own,
    PtMap.Inv s1 0x100 0x100 own /\ ADDR < two64 /\ T.mem_w64 s1 /\
    hw_idx (page_from_addr ADDR) 0 <> 511 /\ ~ PtTheorems.same_page (page_from_addr ADDR) temp_page /\
    PtFault.cow_pre s1 0x100 (page_from_addr ADDR) = Some 0x130201 /\
    (forall e, PtFault.cow_pre s1 0x100 (page_from_addr ADDR) = Some e ->
       backed s1 (hw_frame e) = true /\ own (hw_frame e) = None /\ ~ In (hw_frame e) (orc s1)).
Proof.
  destruct s1_inv as (own & HI & Hd). exists own.
  split; [exact HI|]. split; [reflexivity|]. split; [exact s1_w64|].
  split; [vm_compute; discriminate|]. split; [vm_compute; discriminate|].
  split; [vm_compute; reflexivity | exact Hd].
Qed.
