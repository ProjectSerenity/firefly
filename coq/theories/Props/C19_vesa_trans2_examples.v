(** Non-vacuity and concrete runs for Props/C19_vesa_trans2.v: the regenerated constructors, SetFont and the DriverInit
    size expressions run by vm_compute on the kernel's usual modes (1024x768x32 with a padded pitch and a 64-row logo,
    the 80x25 text mode) and on the corners (bpp = 255 wraps to 0 bytes per pixel; a font with a zero dimension). *)
From Coq Require Import NArith PArith String List Lia.
From FF Require Import Lib.Word Lib.GoOps Lib.GoOpsFmt Gen.Consts_device_tty Gen.Consts_device_video_console.
From FF Require Import Gen.Trans_console_vesa Gen.Trans_console_vga.
From FF Require Import Console.Mem Console.Loop Console.Vga Console.VgaProofs Console.Vesa Console.VesaProofs.
From FF Require Import Console.VesaTrans2 Props.C19_vesa_trans2.
Import ListNotations.
Local Open Scope N_scope.

Definition k0 : go_console_VesaFbConsole := go_console_NewVesaFbConsole 1024 768 32 4160 true 0xe0000000.

Example C19_vesa_ctor_run :
  f_VesaFbConsole_bpp k0 = 32 /\ f_VesaFbConsole_bytesPerPixel k0 = 4 /\ f_VesaFbConsole_width k0 = 1024 /\
  f_VesaFbConsole_height k0 = 768 /\ f_VesaFbConsole_pitch k0 = 4160 /\ f_VesaFbConsole_offsetY k0 = 0 /\
  f_VesaFbConsole_font k0 = false /\ f_VesaFbConsole_fb k0 = [] /\ f_VesaFbConsole_defaultFg k0 = 7 /\
  f_VesaFbConsole_clearChar k0 = 32.
Proof. vm_compute. repeat split; reflexivity. Qed.

(** bytesPerPixel for the five supported depths, and the uint8 wrap of bpp+1 at 255 *)
Example C19_vesa_ctor_bytespp :
  map (fun b => f_VesaFbConsole_bytesPerPixel (go_console_NewVesaFbConsole 1 1 b 4 true 0)) [8; 15; 16; 24; 32; 255]
  = [1; 2; 2; 3; 4; 0].
Proof. vm_compute. reflexivity. Qed.

(** SetLogo's effect on the geometry (offsetY := 64), then SetFont with a 8x16 font: a 128 x 44 grid *)
Example C19_vesa_setFont_run :
  match go_console_VesaFbConsole_SetFont (set_f_VesaFbConsole_offsetY k0 64) true 16 8 with
  | GOk (k, _) => (f_VesaFbConsole_font k, f_VesaFbConsole_widthInChars k, f_VesaFbConsole_heightInChars k)
  | _ => (false, 0, 0) end = (true, 128, 44).
Proof. vm_compute. reflexivity. Qed.

(** a 10-pixel-wide font on 1024 pixels: 102 columns (rounded down, 4 pixels unused) *)
Example C19_vesa_setFont_rounds_down :
  match go_console_VesaFbConsole_SetFont k0 true 16 10 with
  | GOk (k, _) => f_VesaFbConsole_widthInChars k | _ => 0 end = 102.
Proof. vm_compute. reflexivity. Qed.

Example C19_vesa_setFont_zero_width_panics : go_console_VesaFbConsole_SetFont k0 true 16 0 = GPanic.
Proof. vm_compute. reflexivity. Qed.
Example C19_vesa_setFont_zero_height_panics : go_console_VesaFbConsole_SetFont k0 true 0 8 = GPanic.
Proof. vm_compute. reflexivity. Qed.

(** DriverInit: 768 rows of 4160 bytes (pitch, not 1024*4) *)
Example C19_vesa_driverInit_run :
  go_console_VesaFbConsole_DriverInit_mapSize k0 = 3194880 /\ go_console_VesaFbConsole_DriverInit_fbLen k0 = 3194880 /\
  go_console_VesaFbConsole_DriverInit_fbCap k0 = 3194880.
Proof. vm_compute. repeat split; reflexivity. Qed.

(** the hypotheses of the theorems at this console *)
Example C19_vesa_constructor_is_translation_nonvacuous : 32 < 256.
Proof. reflexivity. Qed.
Example C19_vesa_driverInit_establishes_flen_nonvacuous :
  ph (new_vesa 1024 768 32 4160 (mkColorInfo 16 8 8 8 0 8) 0 (fun _ => (0, 0, 0))) *
  pitch (new_vesa 1024 768 32 4160 (mkColorInfo 16 8 8 8 0 8) 0 (fun _ => (0, 0, 0))) < two32.
Proof. reflexivity. Qed.

(** the 80x25 text console *)
Definition t0 : go_console_VgaTextConsole := go_console_NewVgaTextConsole 80 25 0xb8000.
Example C19_vga_ctor_run :
  f_VgaTextConsole_width t0 = 80 /\ f_VgaTextConsole_height t0 = 25 /\ f_VgaTextConsole_palette t0 = vga_paletteLen /\
  f_VgaTextConsole_defaultFg t0 = vga_defaultFg /\ f_VgaTextConsole_clearChar t0 = vga_clearChar /\
  go_console_VgaTextConsole_DriverInit_mapSize t0 = 4000 /\ go_console_VgaTextConsole_DriverInit_fbLen t0 = 2000.
Proof. vm_compute. repeat split; reflexivity. Qed.
Example C19_vga_driverInit_establishes_wf_nonvacuous :
  1 <= vw (mkVga 80 25) /\ 1 <= vh (mkVga 80 25) /\ vw (mkVga 80 25) * vh (mkVga 80 25) * 2 < two32.
Proof. vm_compute. repeat split; discriminate || reflexivity. Qed.

(** both hypotheses of C19_vesa_driverInit_establishes_flen TOGETHER at the 1024x768x32 console with pitch 4160:
    a framebuffer [m'] of exactly the length DriverInit gives its slice exists, and the theorem's conclusion at it *)
Definition c0 : vesa := new_vesa 1024 768 32 4160 (mkColorInfo 16 8 8 8 0 8) 0 (fun _ => (0, 0, 0)).
Definition m0 : fbuf := fresh 3194880 (fun _ => 0).
Example C19_vesa_driverInit_establishes_flen_real_input :
  ph c0 * pitch c0 < two32 /\
  flen m0 = go_console_VesaFbConsole_DriverInit_fbLen (VesaTrans.to_gs c0 0xe0000000 no_fb) /\
  flen m0 = ph c0 * pitch c0.
Proof.
  assert (H1 : ph c0 * pitch c0 < two32) by reflexivity.
  assert (H2 : flen m0 = go_console_VesaFbConsole_DriverInit_fbLen (VesaTrans.to_gs c0 0xe0000000 no_fb)) by (vm_compute; reflexivity).
  split; [exact H1|]. split; [exact H2|].
  exact (C19_vesa_driverInit_establishes_flen c0 0xe0000000 no_fb m0 H1 H2).
Qed.

(** all four hypotheses of C19_vga_driverInit_establishes_wf TOGETHER at the 80x25 text mode: a 2000-cell
    framebuffer, hence [vga_wf] *)
Example C19_vga_driverInit_establishes_wf_real_input : vga_wf (mkVga 80 25) (fresh 2000 (fun _ => 0)).
Proof.
  apply (C19_vga_driverInit_establishes_wf (mkVga 80 25) 0xb8000 no_fb (fresh 2000 (fun _ => 0))).
  - vm_compute; discriminate.
  - vm_compute; discriminate.
  - reflexivity.
  - vm_compute; reflexivity.
Qed.

(** the hypothesis of C19_vesa_map_size_wraps (height * pitch >= 2^32) is satisfiable only by geometries no video
    mode has - e.g. 65536 rows of 65536 bytes, where the mapped size is 0 *)
Example C19_vesa_map_size_wraps_nonvacuous :
  let c := new_vesa 16384 65536 32 65536 (mkColorInfo 16 8 8 8 0 8) 0 (fun _ => (0, 0, 0)) in
  two32 <= ph c * pitch c /\ vesa_map_size c = 0.
Proof. vm_compute. split; [discriminate|reflexivity]. Qed.
