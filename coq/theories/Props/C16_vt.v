(** C16 composed with C17 — what the real terminal shows after bring-up (second configuration of
    DESIGN.md section 5).  Statement only; proof in Hal/VtCompose.v on top of [bringup]
    (Hal/HalProofs.v, the lemma behind C16_bringup) and C17's vt_refines (Tty/VtProofs.v). *)
From Coq Require Import NArith List.
From FF Require Import Lib.Word Gen.Consts_kfmt Kfmt.Fmt Kfmt.Ring Kfmt.RingProofs Hal.Model Hal.Spec Hal.HalProofs Hal.VtCompose.
From FF Require Tty.Vt Tty.VtSpec.
Import ListNotations.
Local Open Scope N_scope.

(** For every bring-up scenario in which a console and a terminal come up and every geometry of that
    console (w, h >= 1, tab <= 255, w*(h+sb)*3 < 2^32): the Write / SetState calls bring-up makes on
    the terminal ([tty_ops], read off the trace), run on the model of tty.VT after AttachTo, do not
    panic, and the terminal's contents, viewport and cursor are exactly those of the reference
    terminal of C17 after receiving  newest-[capacity](early log) ++ later log  — every early byte
    once, in order, ahead of later output, now at the level of what the terminal holds.  (That the
    delivered stream consists of bytes is a hypothesis: log chunks are Go bytes.) *)
Theorem C16_bringup_terminal_shows :
  forall (w h sb tab fg bg : N) (logo_off : bool) (pre : list logop) (sorted_list : list driver) (post : list logop),
    1 <= w -> 1 <= h -> tab <= 255 -> w * (h + sb) * 3 < two32 ->
    exists st a,
      scenario pre sorted_list post (set_logo_off init_hal logo_off) = Ok st /\
      abs_scenario pre sorted_list post init_abs = Ok a /\
      match h_console st, h_tty st with
      | Some c, Some t =>
          Forall (fun b => b < 256) (tty_bytes t (h_trace st)) ->
          exists v0 v,
            Vt.attach (Vt.new_vt tab sb) w h fg bg = Vt.Ok v0 /\
            Vt.run_ops v0 (tty_ops t (h_trace st)) = Vt.Ok v /\
            VtSpec.abs v =
              fold_left (VtSpec.r_byte w h sb tab fg bg) (lastn capacity (a_early a) ++ a_later a)
                        (VtSpec.r_init w h sb fg bg)
      | _, _ => True
      end.
Proof. exact bringup_terminal_shows. Qed.
Print Assumptions C16_bringup_terminal_shows.
