(** C07 — kernel virtual-region reservations never overlap and never wrap.
    Statements only; the proofs are the lemmas of Vmm/RegionProofs.v and, for the two translation ties at the end,
    of Vmm/RegionTrans.v. *)
From Coq Require Import NArith List.
From Coq Require Import String.
From FF Require Import Lib.Word Lib.GoOps Gen.Consts_mm_vmm Gen.Trans_mm_vmm Vmm.Region Vmm.RegionProofs Vmm.RegionTrans.
Import ListNotations.
Local Open Scope N_scope.

(** For every history of reservation / region-mapping requests with any 64-bit sizes, started
    from any page-aligned cursor at or below the temporary-mapping page (the kernel starts at
    exactly that page): every successful reservation is page-aligned, a whole number of pages, at
    least as large as requested (and less than a page larger), lies below the temporary-mapping
    page, and lies entirely below every region reserved before it. *)
Theorem C07_reserve_history :
  forall (l0 : N) (ops : list op),
    WFstart l0 -> Forall WFop ops ->
    Forall region_ok (regions l0 ops) /\
    Forall (below l0) (regions l0 ops) /\
    ForallOrdPairs (fun earlier later => below (fst (fst earlier)) later) (regions l0 ops).
Proof. intros l0 ops H1 H2. exact (regions_inv ops l0 H2 H1). Qed.
Print Assumptions C07_reserve_history.

(** [regions] is what callers see: the address returned by a reservation is the region's address,
    and the cursor moves exactly to it; a failed request leaves the cursor where it was. *)
Theorem C07_reserve_result :
  forall last s, s < two64 -> last <= vmm_tempMappingAddr ->
    snd (step last (Reserve s)) =
      RReserve (match op_region last (Reserve s) with Some (a, _, _) => Some a | None => None end).
Proof. exact reserve_result. Qed.
Print Assumptions C07_reserve_result.

Theorem C07_cursor :
  forall last o, WFop o -> last <= vmm_tempMappingAddr ->
    fst (step last o) = match op_region last o with Some (a, _, _) => a | None => last end.
Proof. exact step_cursor. Qed.
Print Assumptions C07_cursor.

(** A request fails exactly when its page-rounded size (computed without wrap-around) does not
    fit below the cursor, and then reserves nothing. *)
Theorem C07_fail_iff_no_fit :
  forall last s, s < two64 -> last <= vmm_tempMappingAddr ->
    (snd (early_reserve last s) = None <-> last < ceil_pages s * 4096) /\
    (snd (early_reserve last s) = None -> fst (early_reserve last s) = last).
Proof. exact reserve_fail_iff. Qed.
Print Assumptions C07_fail_iff_no_fit.

(** Sizes within a page of 2^64 are rejected by all three entry points, nothing is mapped. *)
Theorem C07_wrap_rejected :
  forall last f s fl fail, s < two64 -> two64 <= s + 4095 ->
    early_reserve last s = (last, None) /\
    map_region last f s fl fail = (last, [], None) /\
    identity_map_region f s fl fail = ([], None).
Proof. exact region_wrap_rejected. Qed.
Print Assumptions C07_wrap_rejected.

(** MapRegion maps exactly ceil(size/4096) pages, consecutive pages to consecutive frames,
    starting at the page of the region it reserved. *)
Theorem C07_region_pages :
  forall last f s fl, s < two64 -> WFstart last ->
    match reserve_spec last s with
    | Some (a, len) =>
        map_region last f s fl None = (a, consecutive (a / 4096) f fl (ceil_pages s), Some (a / 4096))
        /\ (a / 4096) * 4096 = a /\ ceil_pages s * 4096 = len
    | None => map_region last f s fl None = (last, [], None)
    end.
Proof. exact map_region_ok. Qed.
Print Assumptions C07_region_pages.

Theorem C07_identity_pages :
  forall f s fl, s + 4095 < two64 -> f + ceil_pages s < two64 ->
    identity_map_region f s fl None = (consecutive f f fl (ceil_pages s), Some f).
Proof. exact identity_map_region_ok. Qed.
Print Assumptions C07_identity_pages.

(** If the mapping seam fails at call k, exactly k+1 calls were made. *)
Theorem C07_map_fail_stops :
  forall page frame flags count k, k < count ->
    map_loop page frame flags count (Some k) = (consecutive page frame flags (k + 1), false).
Proof. exact map_loop_fail. Qed.
Print Assumptions C07_map_fail_stops.

(** The tie to the source, by translation: the model of EarlyReserveRegion is equal to the Gallina term
    that gen/gotrans regenerates from kernel/mm/vmm/addr_space.go on every run (new cursor, returned
    address, error), for all 64-bit cursors and sizes; likewise mm.PageFromAddress / mm.FrameFromAddress. *)
Theorem C07_model_is_translation :
  forall last size, size < two64 -> last < two64 ->
    go_vmm_EarlyReserveRegion last size =
      match early_reserve last size with
      | (l', Some a) => (l', a, None)
      | (l', None) => (l', 0, Some "errEarlyReserveNoSpace"%string)
      end.
Proof. exact early_reserve_is_translation. Qed.
Print Assumptions C07_model_is_translation.

Theorem C07_page_of_addr_is_translation :
  forall a, a < two64 -> go_mm_PageFromAddress a = page_of_addr a /\ go_mm_FrameFromAddress a = page_of_addr a.
Proof. exact page_of_addr_is_translation. Qed.
Print Assumptions C07_page_of_addr_is_translation.
