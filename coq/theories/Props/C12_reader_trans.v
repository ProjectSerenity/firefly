(** C12 (and C11) — the tie of the lexical layer to the source BY TRANSLATION.
    Gen/Trans_aml_reader.v is regenerated on every run by gen/gotrans (go/ast) from
    kernel/device/acpi/aml/stream_reader.go: the struct becomes a record, every method a Gallina
    function returning [None] for a Go run-time panic.  The theorems below say that the hand-written
    reader model (Aml/Stream.v), about which [C12_reader_safe], [C12_readByte_window], the lexical
    round-trip and everything built on them are proved, IS that translation, method by method.
    The uint32 arithmetic of the offset is in Aml/StreamTrans.v.  Not covered: Init and DataPtr (unsafe.Pointer),
    which are outside the translator's subset and stay tied by differential testing and source pins. *)
From Coq Require Import NArith List String Lia.
From FF Require Import Lib.Word Lib.GoOps Gen.Trans_aml_reader Aml.Stream Aml.StreamTrans.
Local Open Scope N_scope.

Theorem C12_reader_model_is_translation :
  forall r : reader, len_ok r -> r_offset r < two32 ->
    go_aml_amlStreamReader_EOF (to_go r) = Some (to_go r, eof r) /\
    go_aml_amlStreamReader_Offset (to_go r) = Some (to_go r, r_offset r) /\
    (forall e, go_aml_amlStreamReader_SetPkgEnd (to_go r) e =
               Some (to_go (fst (setPkgEnd r e)), err (snd (setPkgEnd r e)) "errInvalidPkgEnd")) /\
    (forall o, go_aml_amlStreamReader_SetOffset (to_go r) o = Some (to_go (setOffset r o), tt)) /\
    go_aml_amlStreamReader_UnreadByte (to_go r) =
      Some (to_go (fst (unreadByte r)), err (snd (unreadByte r)) "errInvalidUnreadByte") /\
    match readByte r with
    | Ok (Some b, r') => go_aml_amlStreamReader_ReadByte (to_go r) = Some (to_go r', (b, None))
    | Ok (None, r') => go_aml_amlStreamReader_ReadByte (to_go r) = Some (to_go r', (0, Some "errReadPastPkgEnd"%string))
    | Panic => go_aml_amlStreamReader_ReadByte (to_go r) = None
    | OutOfFuel => False
    end /\
    match peekByte r with
    | Ok (Some b) => go_aml_amlStreamReader_PeekByte (to_go r) = Some (to_go r, (b, None))
    | Ok None => go_aml_amlStreamReader_PeekByte (to_go r) = Some (to_go r, (0, Some "errReadPastPkgEnd"%string))
    | Panic => go_aml_amlStreamReader_PeekByte (to_go r) = None
    | OutOfFuel => False
    end /\
    match lastByte r with
    | Ok (Some b) => go_aml_amlStreamReader_LastByte (to_go r) = Some (to_go r, (b, None))
    | Ok None => go_aml_amlStreamReader_LastByte (to_go r) = Some (to_go r, (0, Some "errReadPastPkgEnd"%string))
    | Panic => go_aml_amlStreamReader_LastByte (to_go r) = None
    | OutOfFuel => False
    end.
Proof.
  intros r Hl Ho. pose proof (glen_len r Hl) as Hlen.
  split; [apply eof_is_translation|]. split; [reflexivity|].
  split. { intros e. unfold go_aml_amlStreamReader_SetPkgEnd, setPkgEnd. cbn [to_go f_amlStreamReader_data].
           rewrite Hlen. destruct (r_len r <? e); reflexivity. }
  split. { intros o. unfold go_aml_amlStreamReader_SetOffset, setOffset. cbn [to_go f_amlStreamReader_data].
           rewrite Hlen. destruct (r_len r <? o); reflexivity. }
  split. { unfold go_aml_amlStreamReader_UnreadByte, unreadByte. cbn [to_go f_amlStreamReader_offset].
           destruct (N.eqb_spec (r_offset r) 0) as [E|E]; [reflexivity|]. rewrite gsub32_pred by lia. reflexivity. }
  split. { unfold go_aml_amlStreamReader_ReadByte, readByte. rewrite eof_is_translation.
           destruct (eof r); [reflexivity|]. cbn [to_go f_amlStreamReader_data f_amlStreamReader_offset].
           rewrite (gsub32_succ _ Ho). unfold gidx, byte_at.
           destruct (nth_error (r_data r) (N.to_nat (r_offset r))); reflexivity. }
  split. { unfold go_aml_amlStreamReader_PeekByte, peekByte. rewrite eof_is_translation.
           destruct (eof r); [reflexivity|]. cbn [to_go f_amlStreamReader_data f_amlStreamReader_offset].
           unfold gidx, byte_at. destruct (nth_error (r_data r) (N.to_nat (r_offset r))); reflexivity. }
  unfold go_aml_amlStreamReader_LastByte, lastByte. cbn [to_go f_amlStreamReader_data f_amlStreamReader_offset].
  destruct (N.eqb_spec (r_offset r) 0) as [E|E]; [reflexivity|]. rewrite gsub32_pred by lia.
  unfold gidx, byte_at. destruct (nth_error (r_data r) (N.to_nat (r_offset r - 1))); reflexivity.
Qed.
Print Assumptions C12_reader_model_is_translation.

(** the hypotheses follow from the reader invariant the C12 theorems maintain *)
Theorem C12_reader_wf_gives_len_ok : forall r, reader_wf r -> len_ok r.
Proof. intros r (H1 & _ & H3 & _). split; assumption. Qed.
Print Assumptions C12_reader_wf_gives_len_ok.
