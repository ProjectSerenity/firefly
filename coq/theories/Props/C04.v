(** C04 -- page-table operations implement exactly the requested address translation.
    The statements; each proof is [exact <lemma from Vmm/Pt*.v>] or a few lines from such lemmas.

    Vocabulary (Vmm/PtTree.v, Vmm/PtMap.v):
      [ent s f i]          word i of physical frame f;   [backed s f]  f is simulated RAM
      [mmu]/[resolve]      the x86-64 4-level translation from cr3 (Vmm/Pt.v); every *pte access of the
                           Go code is a virtual access resolved by it
      [aspace s T p]       raw leaf entry of page p in the tree rooted at frame T, if the three upper
                           levels are present (what the harness's software MMU walk returns)
      [translation s T p]  Some (frame, flag bits) iff that leaf is present
      [Inv s A T own]      the invariant: A = active root (cr3), slot 511 of A points at T and T's own
                           slot 511 at T; [own] is the ghost ownership map table frame -> path (no table
                           is shared between two positions of the tree, present entries of upper levels are
                           non-huge and point to owned tables); allocator frames are fresh and distinct.
      pages with top-level index 511 (the recursive window itself) are outside the quantifier. *)
From Coq Require Import NArith List Bool.
From FF Require Import Lib.Word Gen.Consts_mm_vmm Vmm.Pt Vmm.PtArith Vmm.PtTree Vmm.PtMap Vmm.PtOps Vmm.PtTheorems Vmm.PtInit Vmm.PtPdt Vmm.PtTemp Vmm.PtHist Vmm.PtKernel Vmm.PtRegion.
From FF Require Import Vmm.Region Vmm.RegionProofs.
From FF Require Import Gen.Trans_mm_vmm Vmm.PtTrans Vmm.PtBits.
Import ListNotations.
Local Open Scope N_scope.

(** The Go constants describe the hardware that [mmu] models (re-checked against the regenerated
    constants on every run). *)
Theorem C04_constants :
  go_levels = [(39, 9); (30, 9); (21, 9); (12, 9)] /\ vmm_pdtVirtualAddr = win 511 511 511 511 /\
  vmm_tempMappingAddr = win 510 511 511 511 /\ mm_PointerShift = 3 /\ mm_PageShift = 12 /\
  vmm_ptePhysPageMask = N.shiftl (N.ones 40) 12 /\ vmm_FlagPresent = 1 /\ vmm_FlagHugePage = 128 /\
  (forall e, has_flags e vmm_FlagPresent = hw_P e) /\ (forall e, has_flags e vmm_FlagHugePage = hw_PS e) /\
  (forall e, pte_frame e = hw_frame e).
Proof.
  exact (conj go_levels_val (conj pdt_virtual_addr_win (conj temp_addr_win (conj pointer_shift_val (conj page_shift_val
        (conj phys_mask_val (conj flag_present_val (conj flag_huge_val (conj has_present_hw (conj has_huge_hw pte_frame_hw)))))))))).
Qed.
Print Assumptions C04_constants.

(** recursive_entry: the address [walk] computes for the level-k entry of [va] (pdtVirtualAddr,
    [entryAddr <<= 9] with 64-bit wrap-around, k = 0..3) resolves through the MMU to entry
    index_k(va) of the level-k table on va's path -- in the tree of whichever root [T] the active
    root's slot 511 currently points at. *)
Theorem C04_recursive_entry :
  forall s A T va k t,
    N.shiftr (cr3 s) 12 = A -> Rec s A T -> (k <= 3)%nat ->
    follow s T (firstn k (ixs (N.shiftr va 12))) = Some t -> backed s t = true ->
    resolve s (walk_entry_addr va k) = Some (t, nth k (ixs (N.shiftr va 12)) 0).
Proof. exact recursive_entry. Qed.
Print Assumptions C04_recursive_entry.

(** map_ok.  Map never makes a stray access; it returns nil or the allocator's error.  On success the
    page's leaf entry is exactly [*pte = 0; SetFrame; SetFlags], every other page translates as before,
    the page is flushed; on allocator failure NO page's translation changes.  In both cases frames that
    are not tables of this address space are untouched (in particular the active root when T is not
    active), every new table is zero except for the entry on the page's path, and the invariant holds
    again. *)
Theorem C04_map_ok :
  forall s A T own page frame flags,
    Inv s A T own -> hw_idx page 0 <> 511 -> zero_guard s frame flags = false ->
    exists s' err own',
      map_page page frame flags s = Ok (s', err) /\ Inv s' A T own' /\ same_env s s' /\
      (err = 0 \/ err = E_ALLOC) /\
      (err = 0 ->
         aspace s' T page = Some (set_flags (set_frame 0 frame) flags) /\
         (forall q, hw_idx q 0 <> 511 -> ~ same_page q page -> translation s' T q = translation s T q) /\
         flog s' = frame_addr page :: flog s) /\
      (err <> 0 ->
         (forall q, hw_idx q 0 <> 511 -> translation s' T q = translation s T q) /\ flog s' = flog s) /\
      (forall f i, own' f = None -> ent s' f i = ent s f i) /\
      (forall f q i, own f = None -> own' f = Some q -> ent s' f i <> 0 -> exists j, q ++ [i] = firstn j (ixs page)) /\
      (exists n, orc s' = skipn n (orc s) /\
                 forall f, own' f = own f \/ (own f = None /\ In f (firstn n (orc s)) /\ f <> 0)) /\
      (forall f p i, own f = Some p -> p ++ [i] <> firstn (S (length p)) (ixs page) -> ent s' f i = ent s f i) /\
      (forall f p i, own f = Some p -> (length p < 3)%nat -> hw_P (ent s f i) = true -> ent s' f i = ent s f i) /\
      (length (orc s) <= length (orc s') + 3)%nat /\
      ((3 <= length (orc s))%nat -> Forall (fun x => x <> 0) (firstn 3 (orc s)) -> err = 0).
Proof. exact map_ok. Qed.
Print Assumptions C04_map_ok.

(** For frames below 2^40 and flags outside bits 12-51 the entry is frame<<12 | flags and reads back
    as exactly (frame, flags). *)
Theorem C04_leaf_exact :
  forall frame flags, frame < 2 ^ 40 -> N.land flags vmm_ptePhysPageMask = 0 ->
    set_flags (set_frame 0 frame) flags = N.lor (N.shiftl frame 12) flags /\
    hw_frame (set_flags (set_frame 0 frame) flags) = frame /\
    N.ldiff (set_flags (set_frame 0 frame) flags) vmm_ptePhysPageMask = flags /\
    hw_P (set_flags (set_frame 0 frame) flags) = N.testbit flags 0.
Proof. exact leaf_exact. Qed.
Print Assumptions C04_leaf_exact.

Theorem C04_unmap_ok :
  forall s A T own page,
    Inv s A T own -> hw_idx page 0 <> 511 ->
    exists s' err,
      unmap_page page s = Ok (s', err) /\ (err = 0 \/ err = E_INVALID) /\ Inv s' A T own /\ same_env s s' /\ orc s' = orc s /\
      (err = E_INVALID -> s' = s /\ aspace s T page = None) /\
      (err = 0 ->
         exists e, aspace s T page = Some e /\ aspace s' T page = Some (clear_flags e vmm_FlagPresent) /\
                   translation s' T page = None /\
                   (forall q, hw_idx q 0 <> 511 -> ~ same_page q page -> aspace s' T q = aspace s T q) /\
                   flog s' = frame_addr page :: flog s /\
                   (forall f i, own f = None -> ent s' f i = ent s f i) /\
                   (forall f p i, own f = Some p -> p ++ [i] <> ixs page -> ent s' f i = ent s f i)).
Proof. exact unmap_ok. Qed.
Print Assumptions C04_unmap_ok.

(** translate_ok: Translate returns frame*4096 + offset iff the page is mapped, ErrInvalidMapping otherwise. *)
Theorem C04_translate_ok :
  forall s A T own va,
    Inv s A T own -> hw_idx (N.shiftr va 12) 0 <> 511 ->
    translate va s = Ok (match translation s T (N.shiftr va 12) with
                         | Some (f, _) => (E_OK, f * 4096 + va mod 4096)
                         | None => (E_INVALID, 0)
                         end).
Proof. exact translate_ok. Qed.
Print Assumptions C04_translate_ok.

(** The claim DESIGN.md calls pdt_inactive_frame.  [Inv2 s A T ownA own]: A is the active root with tree [ownA], T another root with
    tree [own], the two trees and the allocator's frames are pairwise disjoint.  PageDirectoryTable.Map
    on T has the effect of map_ok on T's address space, EVERY frame of the active tree -- the root
    included, slot 511 restored -- is bit-for-bit what it was, and the patched slot is flushed before and
    after the operation's own flush. *)
Theorem C04_pdt_map_inactive :
  forall s A T ownA own slot page frame flags,
    Inv2 s A T ownA own -> pdts s slot = T -> hw_idx page 0 <> 511 -> zero_guard s frame flags = false ->
    exists s3 err own',
      pdt_map slot page frame flags s = Ok (s3, err) /\ Inv2 s3 A T ownA own' /\ (err = 0 \/ err = E_ALLOC) /\
      (forall f i, ownA f <> None -> ent s3 f i = ent s f i) /\
      (forall q, hw_idx q 0 <> 511 -> aspace s3 A q = aspace s A q) /\
      (err = 0 ->
         aspace s3 T page = Some (set_flags (set_frame 0 frame) flags) /\
         (forall q, hw_idx q 0 <> 511 -> ~ same_page q page -> translation s3 T q = translation s T q) /\
         flog s3 = lea_of A :: frame_addr page :: lea_of A :: flog s) /\
      (err <> 0 ->
         (forall q, hw_idx q 0 <> 511 -> translation s3 T q = translation s T q) /\
         flog s3 = lea_of A :: lea_of A :: flog s) /\
      same_env s s3 /\
      (exists n, orc s3 = skipn n (orc s) /\ forall f, own' f = own f \/ (own f = None /\ In f (firstn n (orc s)) /\ f <> 0)) /\
      (length (orc s) <= length (orc s3) + 3)%nat /\
      ((3 <= length (orc s))%nat -> Forall (fun x => x <> 0) (firstn 3 (orc s)) -> err = 0).
Proof. exact pdt_map_inactive. Qed.
Print Assumptions C04_pdt_map_inactive.

Theorem C04_pdt_unmap_inactive :
  forall s A T ownA own slot page,
    Inv2 s A T ownA own -> pdts s slot = T -> hw_idx page 0 <> 511 ->
    exists s3 err,
      pdt_unmap slot page s = Ok (s3, err) /\ Inv2 s3 A T ownA own /\ (err = 0 \/ err = E_INVALID) /\
      (forall f i, ownA f <> None -> ent s3 f i = ent s f i) /\
      (forall q, hw_idx q 0 <> 511 -> aspace s3 A q = aspace s A q) /\
      (err = 0 -> translation s3 T page = None /\
                  (forall q, hw_idx q 0 <> 511 -> ~ same_page q page -> aspace s3 T q = aspace s T q) /\
                  flog s3 = lea_of A :: frame_addr page :: lea_of A :: flog s) /\
      (err = E_INVALID -> aspace s T page = None /\ (forall q, hw_idx q 0 <> 511 -> aspace s3 T q = aspace s T q) /\
                          flog s3 = lea_of A :: lea_of A :: flog s).
Proof. exact pdt_unmap_inactive. Qed.
Print Assumptions C04_pdt_unmap_inactive.

(** On the active table the methods are the plain functions. *)
Theorem C04_pdt_active :
  forall s slot op, N.shiftr (cr3 s) 12 = pdts s slot -> with_pdt slot op s = op s.
Proof. exact with_pdt_active. Qed.
Print Assumptions C04_pdt_active.

(** PageDirectoryTable.Init of a fresh frame F creates an empty address space disjoint from the active
    one (how an inactive space comes into being); the temporary page is unmapped again, every other
    page of the active space translates as before. *)
Theorem C04_pdt_init :
  forall s A own slot F,
    Inv s A A own -> (prot s && (F =? zf s)) = false -> backed s F = true -> own F = None -> ~ In F (orc s) ->
    exists s' err own1,
      pdt_init slot F s = Ok (s', err) /\ (err = 0 \/ err = E_ALLOC) /\ pdts s' slot = F /\
      (forall k, k <> slot -> pdts s' k = pdts s k) /\
      lo s' = lo s /\ cnt s' = cnt s /\ cr3 s' = cr3 s /\ zf s' = zf s /\ prot s' = prot s /\ last s' = last s /\ slog s' = slog s /\
      (exists n, orc s' = skipn n (orc s) /\ forall f, own1 f = own f \/ (own f = None /\ In f (firstn n (orc s)) /\ f <> 0)) /\
      (err = 0 ->
         Inv2 s' A F own1 (own_root F) /\
         (forall q, hw_idx q 0 <> 511 -> aspace s' F q = None) /\
         (forall q, hw_idx q 0 <> 511 -> ~ same_page q temp_page -> translation s' A q = translation s A q) /\
         translation s' A temp_page = None /\
         (forall f i, own1 f = None -> f <> F -> ent s' f i = ent s f i)) /\
      (err <> 0 -> Inv s' A A own1 /\ (forall q, hw_idx q 0 <> 511 -> translation s' A q = translation s A q) /\
                   (forall f i, own1 f = None -> ent s' f i = ent s f i)) /\
      (length (orc s) <= length (orc s') + 3)%nat /\
      ((3 <= length (orc s))%nat -> Forall (fun x => x <> 0) (firstn 3 (orc s)) -> err = 0).
Proof. exact pdt_init_spec. Qed.
Print Assumptions C04_pdt_init.

(** histories: any sequence of Map / Unmap / Translate requests on the active address space (pages outside
    the recursive window, frames below 2^40, any flag bits outside bits 12-51, any allocator behaviour)
    runs without a stray access and refines the abstract machine [arun]: page -> (frame, flags) of the
    most recent successful Map, nothing after an Unmap; every Translate answers what the abstract map
    holds at that point; a failed request changes no translation. *)
Theorem C04_histories :
  forall A ops s own m,
    Inv s A A own -> prot s = false -> Forall hdom ops -> refines s A m ->
    exists s' rs own',
      hrun ops s = Ok (s', rs) /\ Inv s' A A own' /\ prot s' = false /\
      refines s' A (arun ops rs m) /\ answers_ok ops rs m.
Proof. exact histories. Qed.
Print Assumptions C04_histories.

(** The claim DESIGN.md calls region_pages, on the page tables.  [Hst s A own m]: the active space refines the abstract map [m] and the zero-frame
    guard is not armed; [mrange m p f flags j] is [m] with pages p..p+j-1 mapped to frames f..f+j-1.
    MapRegion reserves ceil(size/4096) pages below the cursor (C07) and maps them consecutively; a size
    that does not fit reserves and maps nothing; on allocator failure a prefix of the region is mapped
    and, as the abstract map shows, no page outside the region changes. *)
Theorem C04_map_region_ok :
  forall s A own m frame size flags,
    Hst s A own m -> flags_ok flags -> size < two64 -> WFstart (last s) ->
    match reserve_spec (last s) size with
    | None => Pt.map_region frame size flags s = Ok (s, E_NOSPACE, 0)
    | Some (a, len) =>
        let start := a / 4096 in let n := N.to_nat (ceil_pages size) in
        (forall j, (j < n)%nat -> hw_idx (start + N.of_nat j) 0 <> 511) -> frame + N.of_nat n <= 2 ^ 40 ->
        exists s' err page own' j,
          Pt.map_region frame size flags s = Ok (s', err, page) /\ last s' = a /\ (j <= n)%nat /\
          Hst s' A own' (mrange m start frame flags j) /\
          ((err = 0 /\ j = n /\ page = start) \/ (err = E_ALLOC /\ (j < n)%nat /\ page = 0))
    end.
Proof. exact active_map_region_ok. Qed.
Print Assumptions C04_map_region_ok.

Theorem C04_identity_map_region_ok :
  forall s A own m frame size flags,
    Hst s A own m -> flags_ok flags -> size + 4095 < two64 ->
    let n := N.to_nat (ceil_pages size) in
    (forall j, (j < n)%nat -> hw_idx (frame + N.of_nat j) 0 <> 511) -> frame + N.of_nat n <= 2 ^ 40 ->
    exists s' err page own' j,
      Pt.identity_map_region frame size flags s = Ok (s', err, page) /\ last s' = last s /\ (j <= n)%nat /\
      Hst s' A own' (mrange m frame frame flags j) /\
      ((err = 0 /\ j = n /\ page = frame) \/ (err = E_ALLOC /\ (j < n)%nat /\ page = 0)).
Proof. exact active_identity_map_region_ok. Qed.
Print Assumptions C04_identity_map_region_ok.

Theorem C04_mrange_pages :
  forall m p0 f0 flags n, N.of_nat n <= 2 ^ 36 ->
    (forall j, (j < n)%nat -> mrange m p0 f0 flags n (ixs (p0 + N.of_nat j)) = Some (f0 + N.of_nat j, flags)) /\
    (forall k, (forall j, (j < n)%nat -> ixs (p0 + N.of_nat j) <> k) -> mrange m p0 f0 flags n k = m k).
Proof. intros m p0 f0 flags n Hn. split; [intros j Hj; apply mrange_in; assumption | apply mrange_out]. Qed.
Print Assumptions C04_mrange_pages.

(** The entry helpers of the model are the Gallina terms that gen/gotrans regenerates from
    kernel/mm/vmm/pdt.go (pageTableEntry.HasFlags/SetFlags/ClearFlags/Frame/SetFrame) and kernel/mm/page.go
    (Frame.Address, Page.Address) on every run -- this part of the model is tied to the source by
    translation, not by testing. *)
Theorem C04_pte_helpers_are_translation :
  forall e fl frame, e < two64 -> fl < two64 -> frame < two64 ->
    go_vmm_pageTableEntry_HasFlags e fl = has_flags e fl /\
    go_vmm_pageTableEntry_SetFlags e fl = set_flags e fl /\
    go_vmm_pageTableEntry_ClearFlags e fl = clear_flags e fl /\
    go_vmm_pageTableEntry_Frame e = pte_frame e /\
    go_vmm_pageTableEntry_SetFrame e frame = set_frame e frame /\
    go_mm_Frame_Address frame = frame_addr frame /\
    go_mm_Page_Address frame = frame_addr frame.
Proof. exact pte_helpers_are_translation. Qed.
Print Assumptions C04_pte_helpers_are_translation.

(** PageDirectoryTable.Activate: the two address spaces swap roles, no memory is touched. *)
Theorem C04_pdt_activate :
  forall s A T ownA own slot,
    Inv2 s A T ownA own -> pdts s slot = T ->
    let s' := pdt_activate slot s in
    Inv2 s' T A own ownA /\ cr3 s' = frame_addr T /\ slog s' = frame_addr T :: slog s /\
    (forall f i, ent s' f i = ent s f i) /\ orc s' = orc s /\ flog s' = flog s.
Proof. exact pdt_activate_spec. Qed.
Print Assumptions C04_pdt_activate.

(** The quantifier of every C04-C06 theorem ([Inv]) includes states whose present upper-level entries and
    recursive entries carry bits the translation ignores -- Accessed (which the CPU always sets), Dirty,
    Global, the available bits 9-11 and 52-62, NX, User, cache control: or-ing any such bits into an entry
    of an upper-level table or of the active root preserves the invariant and every page's raw leaf entry. *)
Theorem C04_ignored_bits_neutral :
  forall s A T own t p i x,
    Inv s A T own -> (own t = Some p /\ (length p < 3)%nat) \/ t = A ->
    let s' := wr_st s t i (N.lor (ent s t i) (N.land x safe_bits)) in
    Inv s' A T own /\ (forall q, hw_idx q 0 <> 511 -> aspace s' T q = aspace s T q).
Proof. exact or_upper_neutral. Qed.
Print Assumptions C04_ignored_bits_neutral.

(** * ONE refinement theorem for histories over the whole interface, on any number of address spaces

    Vocabulary (Vmm/PtGlobal.v, Vmm/PtHist2.v):
      [qop]        the requests, exactly:  QMap / QUnmap / QTranslate (the active space), QMapTemp (MapTemporary),
                   QMapRegion (through the real EarlyReserveRegion cursor), QIdMapRegion, QPdtInit (PageDirectoryTable.Init
                   of a fresh frame), QPdtMap / QPdtUnmap (PageDirectoryTable.Map / Unmap on ANY initialised table, active
                   or not), QActivate, QArm (reserveZeroedFrame, which arms the zero-frame guard).
                   [to_op] sends each to the operation of the executable model ([C04_histories_full_ops]).
      [hist]       an adaptive history: the client sees the answer (error, value) of a request before it chooses the next
                   one ([of_list] = a plain list of requests).
      [ast]        the abstract machine: [am] root -> page -> option (frame, flags); [aact] the active root; [atlb] the log
                   of TLB invalidations; [aslot] the PageDirectoryTable values the client holds; [alast] the reservation
                   cursor; [aroots] the address spaces that exist; [afree] data frames; [aprot]/[azf] the zero-frame
                   guard; [apool] the frames still owned by the physical allocator.
      [AStep o r a a']  what request [o] answered with [r] does to the abstract machine.  The allocator may fail at any
                   point of any request: every success case has a failure sibling, and [C04_full_failure] states
                   exactly what a failed request may have changed.
      [Rel s a g]  the concrete state [s] implements [a]: [g] is a ghost map table frame -> (root, path) under which
                   every root in [aroots a] owns a well-formed tree (recursive entry, no sharing between or inside
                   trees, allocator frames unused); [translation s R q = am a R (ixs q)] for EVERY root R and page q;
                   the flush log, cursor, slots, guard agree; frames in [afree a] are in no tree.
      [cstep_ok]   an operation on a table that is not the active one leaves the active root table bit-for-bit as it was.
      [qsafe h a]  every request of [h] is inside the quantifier ([qdom]) in whatever abstract state the history reaches:
                   pages outside slot 511, frames < 2^40, flag bits outside 12-51, slots initialised, Init only on a
                   frame of [afree], region sizes < 2^64, reserveZeroedFrame only while the guard is not armed.
    The model's [step] (the function that is extracted and run against the code) executes every request without a
    stray access; the answers are those of the abstract machine; the final state again implements the abstract one;
    data frames that stay data frames keep their contents. *)
From FF Require Import Vmm.PtGlobal Vmm.PtHist2.

Theorem C04_histories_full :
  forall (h : hist) s a g,
    Rel s a g -> qsafe h a ->
    exists rs s' a' g',
      Steps h s a rs s' a' /\ Rel s' a' g' /\
      (forall F i, In F (afree a) -> In F (afree a') -> ent s' F i = ent s F i) /\ incl (aroots a) (aroots a').
Proof. exact histories_full. Qed.
Print Assumptions C04_histories_full.

(** the operation set of [C04_histories_full], spelled out *)
Theorem C04_histories_full_ops :
  forall o : qop,
    match o with
    | QMap p f fl => to_op o = OMap p f fl
    | QUnmap p => to_op o = OUnmap p
    | QTranslate va => to_op o = OTranslate va
    | QMapTemp f => to_op o = OMapTemp f
    | QMapRegion f sz fl => to_op o = OMapRegion f sz fl
    | QIdMapRegion f sz fl => to_op o = OIdMapRegion f sz fl
    | QPdtInit k f => to_op o = OPdtInit k f
    | QPdtMap k p f fl => to_op o = OPdtMap k p f fl
    | QPdtUnmap k p => to_op o = OPdtUnmap k p
    | QActivate k => to_op o = OPdtActivate k
    | QArm => to_op o = OReserveZero
    end.
Proof. intros o. destruct o; reflexivity. Qed.
Print Assumptions C04_histories_full_ops.

(** a run is a run of the executable model ([run_hist] is [step] iterated), and it is unique *)
Theorem C04_full_run_is_model_run :
  forall h s a rs s' a', Steps h s a rs s' a' -> run_hist h s = Ok (rs, s').
Proof. exact Steps_run. Qed.
Print Assumptions C04_full_run_is_model_run.

(** the boot state (one address space with nothing mapped but its recursive entry) implements the empty abstract
    machine, so every safe history from boot runs and refines *)
Theorem C04_histories_full_boot :
  forall lo0 cnt0 last0 oracle free pool,
    0 < cnt0 -> lo0 + cnt0 <= 2 ^ 40 -> NoDup (ofr oracle) ->
    (forall f, In f oracle -> f <> 0 -> lo0 < f /\ f < lo0 + cnt0) ->
    (forall F, In F free -> lo0 < F /\ F < lo0 + cnt0 /\ ~ In F oracle) ->
    WFstart (if last0 =? 0 then vmm_tempMappingAddr else last0) -> incl oracle pool ->
    forall h, qsafe h (a_boot lo0 (if last0 =? 0 then vmm_tempMappingAddr else last0) free pool) ->
    exists rs s' a' g',
      run_hist h (init_state lo0 cnt0 last0 oracle) = Ok (rs, s') /\
      Steps h (init_state lo0 cnt0 last0 oracle) (a_boot lo0 (if last0 =? 0 then vmm_tempMappingAddr else last0) free pool) rs s' a' /\
      Rel s' a' g'.
Proof.
  intros lo0 cnt0 last0 oracle free pool Hc Har Hnd Hor Hfree Hw Hpl h Hs.
  destruct (histories_full h _ _ _ (rel_boot lo0 cnt0 last0 oracle free pool Hc Har Hnd Hor Hfree Hw Hpl) Hs) as (rs & s' & a' & g' & HS & HR' & _).
  exists rs, s', a', g'. split; [exact (Steps_run _ _ _ _ _ _ HS)|]. split; assumption.
Qed.
Print Assumptions C04_histories_full_boot.

(** what a failed request may have changed: no translation of any address space - except that the two region
    operations keep the pages they mapped before the allocator failed (and MapRegion keeps its reservation); the
    active root, the set of address spaces and the guard never change on failure.  (A failed or refused request on an
    inactive table still flushes the patched slot twice; a failed Init forgets the slot; a failed reserveZeroedFrame
    keeps the frame it was given, unprotected - see [AStep].) *)
Theorem C04_full_failure :
  forall o r a a',
    AStep o r a a' -> fst r <> 0 ->
    aact a' = aact a /\ aroots a' = aroots a /\ aprot a' = aprot a /\
    match o with
    | QMapRegion f sz fl =>
        match reserve_spec (alast a) sz with
        | Some (a0, _) => exists j, (j < N.to_nat (ceil_pages sz))%nat /\ a' = a_range (set_alast a a0) (aact a) (a0 / 4096) f fl j
        | None => a' = a
        end
    | QIdMapRegion f sz fl => exists j, (j < N.to_nat (ceil_pages sz))%nat /\ a' = a_range a (aact a) f f fl j
    | _ => forall R k, am a' R k = am a R k
    end.
Proof. exact astep_failure. Qed.
Print Assumptions C04_full_failure.

(** the pages a (possibly partial) region operation has mapped, in the vocabulary of [C04_mrange_pages] *)
Theorem C04_full_region_pages :
  forall fl R, N.testbit fl 0 = true -> forall j a p0 f0 R' k,
    am (a_range a R p0 f0 fl j) R' k = if R' =? R then mrange (am a R) p0 f0 fl j k else am a R' k.
Proof. exact a_range_am. Qed.
Print Assumptions C04_full_region_pages.
