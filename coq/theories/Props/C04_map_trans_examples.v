(** Non-vacuity of the theorems of Props/C04_map_trans.v and concrete runs of the regenerated translation
    (Gen/Trans_vmm_map.v) by [vm_compute] from the boot state of a case (arena of 64 frames from 0x100, root 0x100 with
    its recursive entry, allocator handing out 0x101..): a mapping that creates three tables, its translation, its
    removal, the temporary mapping, the armed zero-frame guard, allocator failure, walk with a closure that stops, and
    the one input class on which the hand-written [map_page] and the Go code differ (mapping the page of the
    recursive window itself). *)
From Coq Require Import NArith String List Bool.
From FF Require Import Lib.Word Lib.GoOps Gen.Consts_mm_vmm Gen.Trans_vmm_map Vmm.Pt Vmm.PtMem Vmm.PtAccess.
From FF Require Vmm.MapTrans Vmm.PdtTrans.
Module M := FF.Vmm.MapTrans.
Module T := FF.Vmm.PdtTrans.
Import ListNotations.
Local Open Scope N_scope.

Definition boot : st := init_state 0x100 64 0 [0x101; 0x102; 0x103; 0x104; 0x105; 0x106; 0x107; 0x108].
Definition PG : N := 0x7f0000123.      (* a page of the low canonical half *)
Definition PG511 : N := 0xff8000123.   (* a page of top-level slot 511 (inside the recursive window) *)
Definition PGR : N := 0xfffffffff.     (* the page of pdtVirtualAddr itself: all four indices are 511 *)

Definition obs {A} (r : gres (go_vmm_world * A)) : option (A * list gcall * N) :=
  match r with
  | GOk (w, a) => Some (a, f_world_trace w, digest (f_world_mem w))
  | _ => None
  end.
Definition st_of (r : R (st * N)) : st := match r with Ok (s', _) => s' | Stray => boot end.
Definition s1 : st := st_of (map_page PG 0x4242 3 boot).

Lemma boot_w64 : T.mem_w64 boot.
Proof. apply T.init_state_w64. reflexivity. Qed.

Lemma s1_w64 : T.mem_w64 s1.
Proof.
  unfold s1. destruct (map_page PG 0x4242 3 boot) as [[s' e]|] eqn:E; cbn [st_of]; [|exact boot_w64].
  refine (proj2 (proj2 (T.map_page_keeps _ _ _ _ _ _ _ E)) boot_w64). reflexivity.
Qed.

(** ---- Map ---- *)
Example C04_map_is_translation_nonvacuous :
  (3 : N) < two64 /\ T.mem_w64 boot /\ M.map_stable go_levels 0 vmm_pdtVirtualAddr (frame_addr PG) boot.
Proof.
  split; [reflexivity|]. split; [exact boot_w64|].
  apply M.map_stable_b_ok. vm_compute. reflexivity.
Qed.

Example C04_map_stable_decidable_nonvacuous :
  M.map_stable_b go_levels 0 vmm_pdtVirtualAddr (frame_addr PG) boot = true /\
  M.map_stable_b go_levels 0 vmm_pdtVirtualAddr (frame_addr PG511) boot = true /\
  M.map_stable_b go_levels 0 vmm_pdtVirtualAddr (frame_addr temp_page) s1 = true.
Proof. vm_compute. repeat split. Qed.

(** three tables are allocated, linked, cleared through the recursive window; the leaf is flushed *)
Example map_run :
  obs (go_vmm_Map (mk_go_vmm_world [] boot) PG 0x4242 3 T.o_flush T.o_memset M.o_alloc M.o_id)
  = Some (None,
          [GCall "flushTLBEntryFn" [GNum (frame_addr PG)];
           GCall "kernel.Memset" [GNum 0xffffffbf80000000; GNum 0; GNum 4096]; GCall "nextAddrFn" [GNum 0xffffffbf80000000]; GCall "mm.AllocFrame" [];
           GCall "kernel.Memset" [GNum 0xffffffffdfc00000; GNum 0; GNum 4096]; GCall "nextAddrFn" [GNum 0xffffffffdfc00000]; GCall "mm.AllocFrame" [];
           GCall "kernel.Memset" [GNum 0xffffffffffefe000; GNum 0; GNum 4096]; GCall "nextAddrFn" [GNum 0xffffffffffefe000]; GCall "mm.AllocFrame" []],
          digest s1)
  /\ map_page PG 0x4242 3 boot = Ok (s1, 0) /\ digest s1 <> digest boot.
Proof.
  (* named, the model's run is evaluated once for all its occurrences, those in [s1] included *)
  unfold s1. set (r := map_page PG 0x4242 3 boot). vm_compute. repeat split; try reflexivity. discriminate.
Qed.

(** the allocator fails at the second table: its error comes back, the first table stays linked *)
Example map_alloc_failure_run :
  obs (go_vmm_Map (mk_go_vmm_world [] (set_orc boot [0x101; 0])) PG 0x4242 3 T.o_flush T.o_memset M.o_alloc M.o_id)
  = Some (Some "errAllocFrame"%string,
          [GCall "mm.AllocFrame" [];
           GCall "kernel.Memset" [GNum 0xffffffffffefe000; GNum 0; GNum 4096]; GCall "nextAddrFn" [GNum 0xffffffffffefe000]; GCall "mm.AllocFrame" []],
          digest (st_of (map_page PG 0x4242 3 (set_orc boot [0x101; 0]))))
  /\ (match map_page PG 0x4242 3 (set_orc boot [0x101; 0]) with Ok (_, e) => e | Stray => 99 end) = E_ALLOC.
Proof. set (r := map_page PG 0x4242 3 (set_orc boot [0x101; 0])). vm_compute. split; reflexivity. Qed.

(** the armed zero-frame guard *)
Example C04_map_guard_is_translation_nonvacuous :
  let s := set_prot (set_zf boot 0x150) true in prot s = true /\ N.land 3 vmm_FlagRW <> 0.
Proof. vm_compute. split; [reflexivity|discriminate]. Qed.

Example map_guard_run :
  let s := set_prot (set_zf boot 0x150) true in
  obs (go_vmm_Map (mk_go_vmm_world [] s) PG 0x150 3 T.o_flush T.o_memset M.o_alloc M.o_id)
  = Some (Some "errAttemptToRWMapReservedFrame"%string, [], digest boot)
  /\ obs (go_vmm_Map (mk_go_vmm_world [] s) PG 0x150 0x201 T.o_flush T.o_memset M.o_alloc M.o_id) <> obs (GOk (mk_go_vmm_world [] s, Some "errAttemptToRWMapReservedFrame"%string)).
Proof. vm_compute. split; [reflexivity|discriminate]. Qed.

(** ---- Translate / Unmap ---- *)
Example C04_translate_is_translation_nonvacuous : T.mem_w64 s1.
Proof. exact s1_w64. Qed.
Example C04_unmap_is_translation_nonvacuous : T.mem_w64 s1.
Proof. exact s1_w64. Qed.

Example translate_run :
  go_vmm_Translate (mk_go_vmm_world [] s1) (frame_addr PG + 0x7ab) = GOk (mk_go_vmm_world [] s1, (0x42427ab, None))
  /\ go_vmm_Translate (mk_go_vmm_world [] s1) (frame_addr (PG + 1)) = GOk (mk_go_vmm_world [] s1, (0, Some "ErrInvalidMapping"%string))
  /\ go_vmm_Translate (mk_go_vmm_world [] boot) (frame_addr PG) = GOk (mk_go_vmm_world [] boot, (0, Some "ErrInvalidMapping"%string)).
Proof. vm_compute. repeat split. Qed.

Example unmap_run :
  obs (go_vmm_Unmap (mk_go_vmm_world [] s1) PG T.o_flush)
  = Some (None, [GCall "flushTLBEntryFn" [GNum (frame_addr PG)]], digest (st_of (unmap_page PG s1)))
  /\ (match go_vmm_Unmap (mk_go_vmm_world [] s1) PG T.o_flush with
      | GOk (w, _) => go_vmm_Translate (mk_go_vmm_world [] (f_world_mem w)) (frame_addr PG)
      | _ => GPanic end) = GOk (mk_go_vmm_world [] (st_of (unmap_page PG s1)), (0, Some "ErrInvalidMapping"%string))
  /\ obs (go_vmm_Unmap (mk_go_vmm_world [] boot) PG T.o_flush) = Some (Some "ErrInvalidMapping"%string, [], digest boot).
Proof.
  set (g := go_vmm_Unmap (mk_go_vmm_world [] s1) PG T.o_flush). set (r := unmap_page PG s1).
  vm_compute. repeat split.
Qed.

(** ---- MapTemporary ---- *)
Example C04_map_temporary_is_translation_nonvacuous :
  T.mem_w64 s1 /\ M.map_stable go_levels 0 vmm_pdtVirtualAddr (frame_addr temp_page) s1.
Proof. split; [exact s1_w64|]. apply M.map_stable_b_ok. vm_compute. reflexivity. Qed.

Example map_temporary_run :
  (match go_vmm_MapTemporary (mk_go_vmm_world [] s1) 0x130 T.o_flush T.o_memset M.o_alloc M.o_id with
   | GOk (w, (p, e)) => Some (p, e, digest (f_world_mem w)) | _ => None end)
  = Some (temp_page, None, digest (match map_temporary 0x130 s1 with Ok (s', _, _) => s' | Stray => boot end))
  /\ (match map_temporary 0x130 s1 with Ok (_, e, p) => Some (e, p) | Stray => None end) = Some (0, temp_page).
Proof. set (r := map_temporary 0x130 s1). vm_compute. split; reflexivity. Qed.

(** ---- walk ---- *)
Example C04_walk_is_translation_nonvacuous : (5 <= 5)%nat.
Proof. constructor. Qed.

(** a closure that counts its calls in the flush log and stops at level 2: three calls, in order, then nothing *)
Definition count_clo (l p : N) (s : st) : option (st * bool) := Some (flush s p, l <? 2).
Example walk_run :
  (match go_vmm_walk 5 (mk_go_vmm_world [] boot) (frame_addr PG) M.o_id (M.o_clo count_clo) with
   | GOk (w, _) => Some (f_world_trace w, flog (f_world_mem w)) | _ => None end)
  = Some ([M.ev_walkfn 2 0xffffffffdfc00000; M.ev_ptr 0xffffffffdfc00000;
           M.ev_walkfn 1 0xffffffffffefe000; M.ev_ptr 0xffffffffffefe000;
           M.ev_walkfn 0 0xfffffffffffff7f0; M.ev_ptr 0xfffffffffffff7f0],
          [0xffffffffdfc00000; 0xffffffffffefe000; 0xfffffffffffff7f0])
  /\ walk_items (frame_addr PG) = [(0, 0xfffffffffffff7f0); (1, 0xffffffffffefe000); (2, 0xffffffffdfc00000); (3, 0xffffffbf80000918)]
  /\ go_vmm_walk 4 (mk_go_vmm_world [] boot) (frame_addr PG) M.o_id (M.o_clo (fun _ _ s => Some (s, true))) = GFuel.
Proof. vm_compute. repeat split. Qed.

(** ---- where the hand-written model and the Go code differ ----
    Mapping the page of the recursive window itself ([PGR]: all four indices 511): the level-0 entry IS the recursive
    entry 511 of the root, and it is "not present + huge" free, so Map's leaf code runs at level 3 on the root's entry
    511: the store of 0 removes the recursive mapping and the next dereference of the same pointer cannot be resolved -
    the translation panics (hardware without a cached translation: a fault), while [map_page], which resolved the
    address once, reports success.  [map_stable] excludes it ([map_stable_b] = false). *)
Example map_recursive_page_differs :
  go_vmm_Map (mk_go_vmm_world [] boot) PGR 0x4242 3 T.o_flush T.o_memset M.o_alloc M.o_id = GPanic
  /\ (match map_page PGR 0x4242 3 boot with Ok (_, e) => Some e | Stray => None end) = Some 0
  /\ M.map_stable_b go_levels 0 vmm_pdtVirtualAddr (frame_addr PGR) boot = false.
Proof. vm_compute. repeat split. Qed.

(** ---- the general corollaries: the boot state satisfies the invariant ---- *)
From FF Require Vmm.PtInit Vmm.PtMap.
Lemma boot_inv : PtMap.Inv boot 0x100 0x100 (PtInit.own_root 0x100).
Proof.
  apply PtInit.Inv_init; [reflexivity | vm_compute; discriminate | |].
  - vm_compute. repeat constructor; cbn; intuition discriminate.
  - intros f Hin Hz. cbn in Hin. repeat (destruct Hin as [<-|Hin]; [vm_compute; split; reflexivity|]). destruct Hin.
Qed.

Example C04_map_is_translation_inv_nonvacuous :
  PtMap.Inv boot 0x100 0x100 (PtInit.own_root 0x100) /\ hw_idx PG 0 <> 511 /\ hw_idx PG511 0 = 511 /\ (3 : N) < two64 /\ T.mem_w64 boot.
Proof. split; [exact boot_inv|]. split; [vm_compute; discriminate|]. split; [reflexivity|]. split; [reflexivity | exact boot_w64]. Qed.

Example C04_map_temporary_is_translation_inv_nonvacuous :
  PtMap.Inv boot 0x100 0x100 (PtInit.own_root 0x100) /\ T.mem_w64 boot.
Proof. split; [exact boot_inv | exact boot_w64]. Qed.

Example C04_map_stable_inv_nonvacuous : PtMap.Inv boot 0x100 0x100 (PtInit.own_root 0x100) /\ hw_idx PG 0 <> 511.
Proof. split; [exact boot_inv | vm_compute; discriminate]. Qed.
