(** Non-vacuity for C11_frag: programs of the fragment, by computation. *)
From Coq Require Import NArith List.
From FF Require Import Aml.Grammar Aml.WfProgram Aml.ParserFragF0Final Aml.ParserFragF1Final Aml.ParserFragF3Final Aml.ParserFragF4Final Aml.ParserFragF5Final Aml.ParserFragF6Final Aml.ParserFragF7Final Aml.ParserFragT2Final Aml.ParserFragT2F7Final Aml.ParserFragTNTop Aml.ParserFragTNFinal Aml.ParserFragF8Final Aml.ParserFragTN8Final Aml.ParserFragF9Final Props.C11_frag.
Import ListNotations.
Local Open Scope N_scope.

Definition f0_nm (a b c d : N) : namestr := mkName false 0 false [seg4 a b c d].

(** every constant form, a name with digits and underscores, and a name declared twice *)
Definition f0_program : list (list ast) :=
  [[AName (f0_nm 0x41 0x42 0x43 0x44) (AConst OP_BYTE 7);
    AName (f0_nm 0x5f 0x41 0x31 0x5f) (AConst 0x00 0);
    AName (f0_nm 0x42 0x5f 0x5f 0x5f) (AConst 0x01 0);
    AName (f0_nm 0x43 0x30 0x30 0x39) (AConst 0xff 0);
    AName (f0_nm 0x57 0x4f 0x52 0x44) (AConst OP_WORD 0xbeef);
    AName (f0_nm 0x44 0x57 0x52 0x44) (AConst OP_DWORD 0xdeadbeef);
    AName (f0_nm 0x51 0x57 0x52 0x44) (AConst OP_QWORD 0x1122334455667788);
    AName (f0_nm 0x41 0x42 0x43 0x44) (AConst OP_BYTE 9)]].

Example C11_parse_encode_partial_nonvacuous :
  wf_program f0_program = true /\ in_fragment_F0 f0_program = true /\ wf_program [[]] = true /\ in_fragment_F0 [[]] = true.
Proof. vm_compute. repeat split. Qed.

(** the theorem at that program, and the size of its namespace *)
Example C11_parse_encode_partial_instance : parse_encode_statement f0_program.
Proof. apply C11_parse_encode_partial; vm_compute; reflexivity. Qed.

Example C11_parse_encode_partial_run : parse_program f0_program = (0, ns f0_program) /\ length (ns f0_program) = 8%nat.
Proof. split; [exact C11_parse_encode_partial_instance|reflexivity]. Qed.

(** outside the fragment: two tables, a Device, a two-segment name *)
Example C11_fragment_excludes :
  in_fragment_F0 [[]; []] = false /\
  in_fragment_F0 [[ADevice 1 (f0_nm 0x44 0x45 0x56 0x30) []]] = false /\
  in_fragment_F0 [[AName (mkName false 0 false [seg4 0x41 0x42 0x43 0x44; seg4 0x41 0x42 0x43 0x44]) (AConst 0 0)]] = false /\
  in_fragment_F0 [[AName (mkName true 0 false [seg4 0x41 0x42 0x43 0x44]) (AConst 0 0)]] = false.
Proof. vm_compute. repeat split. Qed.

(** ---- F1: nested Devices ---- *)
Definition f1_program : list (list ast) :=
  [[AName (f0_nm 0x41 0x42 0x43 0x44) (AConst OP_BYTE 7);
    ADevice 1 (f0_nm 0x44 0x45 0x56 0x30)
      [AName (f0_nm 0x4e 0x41 0x4d 0x30) (AConst OP_WORD 0x1234);
       ADevice 2 (f0_nm 0x44 0x45 0x56 0x31) [ADevice 1 (f0_nm 0x44 0x45 0x56 0x32) []; AName (f0_nm 0x5f 0x41 0x44 0x52) (AConst 0x01 0)];
       AName (f0_nm 0x4e 0x41 0x4d 0x31) (AConst 0xff 0)];
    ADevice 3 (f0_nm 0x45 0x4d 0x50 0x54) [];
    AName (f0_nm 0x5a 0x5a 0x5a 0x5a) (AConst OP_QWORD 0x8877665544332211)]].

Example C11_parse_encode_partial_F1_nonvacuous :
  wf_program f1_program = true /\ in_fragment_F1 f1_program = true /\ in_fragment_F0 f1_program = false /\
  in_fragment_F1 f0_program = true.
Proof. vm_compute. repeat split. Qed.

Example C11_parse_encode_partial_F1_instance : parse_encode_statement f1_program.
Proof. apply C11_parse_encode_partial_F1; vm_compute; reflexivity. Qed.

Example C11_parse_encode_partial_F1_run : parse_program f1_program = (0, ns f1_program) /\ length (ns f1_program) = 9%nat.
Proof. split; [exact C11_parse_encode_partial_F1_instance|reflexivity]. Qed.

(** outside F1: a Scope block, a Device with a two-segment name, a Method *)
Example C11_fragment_F1_excludes :
  in_fragment_F1 [[AScope 1 (mkName true 0 false [seg4 0x5f 0x53 0x42 0x5f]) []]] = false /\
  in_fragment_F1 [[ADevice 1 (mkName false 0 false [seg4 0x41 0x42 0x43 0x44; seg4 0x41 0x42 0x43 0x44]) []]] = false /\
  in_fragment_F1 [[AMethod 1 (f0_nm 0x4d 0x54 0x48 0x30) 0 []]] = false.
Proof. vm_compute. repeat split. Qed.

(** ---- F2: Methods whose bodies hold declarations ---- *)
Definition f2_program : list (list ast) :=
  [[AMethod 1 (f0_nm 0x4d 0x54 0x48 0x30) 2 [];
    ADevice 2 (f0_nm 0x44 0x45 0x56 0x30)
      [AMethod 1 (f0_nm 0x5f 0x53 0x54 0x41) 0 [AName (f0_nm 0x4c 0x4f 0x43 0x30) (AConst OP_BYTE 1)];
       AName (f0_nm 0x4e 0x41 0x4d 0x30) (AConst OP_DWORD 0xcafe);
       AMethod 2 (f0_nm 0x4d 0x54 0x48 0x31) 0x83 [ADevice 1 (f0_nm 0x44 0x45 0x56 0x31) []; AMethod 1 (f0_nm 0x4d 0x54 0x48 0x32) 7 []]];
    AName (f0_nm 0x5a 0x5a 0x5a 0x5a) (AConst 0x00 0)]].

Example C11_parse_encode_partial_F2_nonvacuous :
  wf_program f2_program = true /\ in_fragment_F2 f2_program = true /\ in_fragment_F1 f2_program = false /\
  in_fragment_F2 f1_program = true /\ in_fragment_F2 f0_program = true.
Proof. vm_compute. repeat split. Qed.

Example C11_parse_encode_partial_F2_instance : parse_encode_statement f2_program.
Proof. apply C11_parse_encode_partial_F2; vm_compute; reflexivity. Qed.

Example C11_parse_encode_partial_F2_run : parse_program f2_program = (0, ns f2_program) /\ length (ns f2_program) = 9%nat.
Proof. split; [exact C11_parse_encode_partial_F2_instance|reflexivity]. Qed.

(** outside F2: a Method with an executable statement, a Scope block *)
Example C11_fragment_F2_excludes :
  in_fragment_F2 [[AMethod 1 (f0_nm 0x4d 0x54 0x48 0x30) 0 [AOp 0xa4 [AConst 0x01 0]]]] = false /\
  in_fragment_F2 [[AScope 1 (mkName true 0 false [seg4 0x5f 0x53 0x42 0x5f]) []]] = false.
Proof. vm_compute. repeat split. Qed.

(** ---- F3: Scope directives over the predefined scopes (\_SB_ opened twice, _TZ_ and _GPE without root prefix) ---- *)
Definition f3_program : list (list ast) :=
  [[AName (f0_nm 0x41 0x42 0x43 0x44) (AConst OP_BYTE 7);
    AScope 1 (mkName true 0 false [seg4 0x5f 0x53 0x42 0x5f])
      [ADevice 1 (f0_nm 0x44 0x45 0x56 0x30) [AName (f0_nm 0x4e 0x41 0x4d 0x30) (AConst OP_WORD 0x1234)];
       AMethod 1 (f0_nm 0x4d 0x54 0x48 0x30) 2 []];
    ADevice 1 (f0_nm 0x44 0x45 0x56 0x31) [];
    AScope 2 (mkName false 0 false [seg4 0x5f 0x54 0x5a 0x5f]) [AName (f0_nm 0x54 0x4d 0x50 0x30) (AConst 0x01 0)];
    AScope 1 (mkName true 0 false [seg4 0x5f 0x53 0x42 0x5f]) [AName (f0_nm 0x5a 0x5a 0x5a 0x5a) (AConst OP_DWORD 0xcafe)];
    AScope 1 (mkName false 0 false [seg4 0x5f 0x47 0x50 0x45]) []]].

Example C11_parse_encode_partial_F3_nonvacuous :
  wf_program f3_program = true /\ in_fragment_F3 f3_program = true /\ in_fragment_F2 f3_program = false /\
  in_fragment_F3 f2_program = true /\ in_fragment_F3 f1_program = true /\ in_fragment_F3 f0_program = true.
Proof. vm_compute. repeat split. Qed.

Example C11_parse_encode_partial_F3_instance : parse_encode_statement f3_program.
Proof. apply C11_parse_encode_partial_F3; vm_compute; reflexivity. Qed.

Example C11_parse_encode_partial_F3_run : parse_program f3_program = (0, ns f3_program) /\ length (ns f3_program) = 7%nat.
Proof. split; [exact C11_parse_encode_partial_F3_instance|reflexivity]. Qed.

(** outside F3: two tables, Scope(\), a Scope inside a Device, a Scope over a declared Device, a nested Scope *)
Example C11_fragment_F3_excludes :
  in_fragment_F3 [[]; []] = false /\
  in_fragment_F3 [[AScope 1 (mkName true 0 false []) []]] = false /\
  in_fragment_F3 [[ADevice 1 (f0_nm 0x44 0x45 0x56 0x30) [AScope 1 (mkName true 0 false [seg4 0x5f 0x53 0x42 0x5f]) []]]] = false /\
  in_fragment_F3 [[ADevice 1 (f0_nm 0x44 0x45 0x56 0x30) []; AScope 1 (f0_nm 0x44 0x45 0x56 0x30) []]] = false /\
  in_fragment_F3 [[AScope 1 (mkName true 0 false [seg4 0x5f 0x53 0x42 0x5f]) [AScope 1 (mkName true 0 false [seg4 0x5f 0x54 0x5a 0x5f]) []]]] = false.
Proof. vm_compute. repeat split. Qed.

(** ---- F4: ThermalZone, Processor, PowerResource (top level, inside Scope(\_PR_), nested) ---- *)
Definition f4_program : list (list ast) :=
  [[AThermal 1 (f0_nm 0x54 0x5a 0x30 0x30) [AName (f0_nm 0x5f 0x54 0x4d 0x50) (AConst OP_WORD 0x0bb8)];
    AScope 1 (mkName true 0 false [seg4 0x5f 0x50 0x52 0x5f])
      [AProcessor 1 (f0_nm 0x43 0x50 0x55 0x30) 1 0x00000410 6 [AName (f0_nm 0x5f 0x55 0x49 0x44) (AConst 0x01 0)];
       AProcessor 2 (f0_nm 0x43 0x50 0x55 0x31) 0xff 0xdeadbeef 0 []];
    APowerRes 1 (f0_nm 0x50 0x57 0x52 0x30) 3 0x1234
      [AMethod 1 (f0_nm 0x5f 0x53 0x54 0x41) 0 []; AMethod 1 (f0_nm 0x5f 0x4f 0x4e 0x5f) 8 [AName (f0_nm 0x4c 0x4f 0x43 0x30) (AConst OP_BYTE 1)]];
    ADevice 2 (f0_nm 0x44 0x45 0x56 0x30)
      [AThermal 1 (f0_nm 0x54 0x5a 0x30 0x31) [APowerRes 1 (f0_nm 0x50 0x57 0x52 0x31) 0 0 []];
       AProcessor 1 (f0_nm 0x43 0x50 0x55 0x32) 2 0 0 [ADevice 1 (f0_nm 0x44 0x45 0x56 0x31) []]];
    AName (f0_nm 0x5a 0x5a 0x5a 0x5a) (AConst OP_QWORD 0x8877665544332211)]].

Example C11_parse_encode_partial_F4_nonvacuous :
  wf_program f4_program = true /\ in_fragment_F4 f4_program = true /\ in_fragment_F3 f4_program = false /\
  in_fragment_F4 f3_program = true /\ in_fragment_F4 f2_program = true /\ in_fragment_F4 f1_program = true /\ in_fragment_F4 f0_program = true.
Proof. vm_compute. repeat split. Qed.

Example C11_parse_encode_partial_F4_instance : parse_encode_statement f4_program.
Proof. apply C11_parse_encode_partial_F4; vm_compute; reflexivity. Qed.

Example C11_parse_encode_partial_F4_run : parse_program f4_program = (0, ns f4_program) /\ length (ns f4_program) = 15%nat.
Proof. split; [exact C11_parse_encode_partial_F4_instance|reflexivity]. Qed.

(** outside F4: a Mutex, a Processor with a root-prefixed name, a Scope inside a ThermalZone, a statement in a PowerResource *)
Example C11_fragment_F4_excludes :
  in_fragment_F4 [[AMutex (f0_nm 0x4d 0x54 0x58 0x30) 0]] = false /\
  in_fragment_F4 [[AProcessor 1 (mkName true 0 false [seg4 0x43 0x50 0x55 0x30]) 0 0 0 []]] = false /\
  in_fragment_F4 [[AThermal 1 (f0_nm 0x54 0x5a 0x30 0x30) [AScope 1 (mkName true 0 false [seg4 0x5f 0x53 0x42 0x5f]) []]]] = false /\
  in_fragment_F4 [[APowerRes 1 (f0_nm 0x50 0x57 0x52 0x30) 0 0 [AOp 0xa4 [AConst 0x01 0]]]] = false.
Proof. vm_compute. repeat split. Qed.

(** ---- F5: Mutex, Event, OperationRegion with constant offset / length ---- *)
Definition f5_program : list (list ast) :=
  [[AMutex (f0_nm 0x4d 0x54 0x58 0x30) 3;
    AEvent (f0_nm 0x45 0x56 0x54 0x30);
    AOpRegion (f0_nm 0x52 0x45 0x47 0x30) 1 (AConst OP_WORD 0x0cf8) (AConst OP_BYTE 8);
    AScope 2 (mkName true 0 false [seg4 0x5f 0x53 0x42 0x5f])
      [ADevice 2 (f0_nm 0x44 0x45 0x56 0x30)
         [AOpRegion (f0_nm 0x47 0x4e 0x56 0x53) 0 (AConst OP_DWORD 0xfed40000) (AConst 0x01 0);
          AMutex (f0_nm 0x4c 0x43 0x4b 0x30) 0;
          AName (f0_nm 0x5f 0x41 0x44 0x52) (AConst 0x00 0);
          AMethod 1 (f0_nm 0x4d 0x54 0x48 0x30) 1 [AEvent (f0_nm 0x45 0x56 0x54 0x31)]];
       AOpRegion (f0_nm 0x52 0x45 0x47 0x31) 0x80 (AConst 0xff 0) (AConst OP_QWORD 0x100000000)];
    AProcessor 1 (f0_nm 0x43 0x50 0x55 0x30) 0 0x410 6 [AMutex (f0_nm 0x4d 0x54 0x58 0x31) 15]]].

Example C11_parse_encode_partial_F5_nonvacuous :
  wf_program f5_program = true /\ in_fragment_F5 f5_program = true /\ in_fragment_F4 f5_program = false /\
  in_fragment_F5 f4_program = true /\ in_fragment_F5 f3_program = true /\ in_fragment_F5 f2_program = true /\ in_fragment_F5 f0_program = true.
Proof. vm_compute. repeat split. Qed.

Example C11_parse_encode_partial_F5_instance : parse_encode_statement f5_program.
Proof. apply C11_parse_encode_partial_F5; vm_compute; reflexivity. Qed.

Example C11_parse_encode_partial_F5_run : parse_program f5_program = (0, ns f5_program) /\ length (ns f5_program) = 12%nat.
Proof. split; [exact C11_parse_encode_partial_F5_instance|reflexivity]. Qed.

(** outside F5: a region whose offset is an operator expression or a name, a Mutex with a parent-prefixed name, a Field *)
Example C11_fragment_F5_excludes :
  in_fragment_F5 [[AOpRegion (f0_nm 0x52 0x45 0x47 0x30) 0 (AOp 0x72 [AConst 1 0; AConst 1 0; ANull]) (AConst 1 0)]] = false /\
  in_fragment_F5 [[AOpRegion (f0_nm 0x52 0x45 0x47 0x30) 0 (ARef (f0_nm 0x41 0x42 0x43 0x44)) (AConst 1 0)]] = false /\
  in_fragment_F5 [[AMutex (mkName false 1 false [seg4 0x4d 0x54 0x58 0x30]) 0]] = false /\
  in_fragment_F5 [[AField 1 (f0_nm 0x52 0x45 0x47 0x30) 0 []]] = false.
Proof. vm_compute. repeat split. Qed.

(** ---- T2: a DSDT-like table and an SSDT-like table that opens \_SB_ and _TZ_ ---- *)
Definition t2_program : list (list ast) :=
  [[ADevice 1 (f0_nm 0x44 0x45 0x56 0x30) [AName (f0_nm 0x5f 0x41 0x44 0x52) (AConst OP_BYTE 3); AMethod 1 (f0_nm 0x5f 0x53 0x54 0x41) 0 []];
    AName (f0_nm 0x41 0x42 0x43 0x44) (AConst OP_WORD 0x1234);
    AProcessor 1 (f0_nm 0x43 0x50 0x55 0x30) 0 0x410 6 [];
    AOpRegion (f0_nm 0x52 0x45 0x47 0x30) 1 (AConst OP_WORD 0x0cf8) (AConst OP_BYTE 8)];
   [AName (f0_nm 0x53 0x53 0x44 0x54) (AConst OP_DWORD 0xdeadbeef);
    AScope 1 (mkName true 0 false [seg4 0x5f 0x53 0x42 0x5f])
      [ADevice 1 (f0_nm 0x44 0x45 0x56 0x31) [AMutex (f0_nm 0x4d 0x54 0x58 0x30) 0; AName (f0_nm 0x5f 0x55 0x49 0x44) (AConst 0x01 0)];
       AEvent (f0_nm 0x45 0x56 0x54 0x30)];
    ADevice 1 (f0_nm 0x44 0x45 0x56 0x32) [];
    AScope 1 (mkName false 0 false [seg4 0x5f 0x54 0x5a 0x5f]) [AThermal 1 (f0_nm 0x54 0x5a 0x30 0x30) []]]].

Example C11_parse_encode_partial_T2_nonvacuous :
  wf_program t2_program = true /\ in_fragment_T2 t2_program = true /\ in_fragment_F5 t2_program = false /\
  wf_program [[]; []] = true /\ in_fragment_T2 [[]; []] = true.
Proof. vm_compute. repeat split. Qed.

Example C11_parse_encode_partial_T2_instance : parse_encode_statement t2_program.
Proof. apply C11_parse_encode_partial_T2; vm_compute; reflexivity. Qed.

Example C11_parse_encode_partial_T2_run : parse_program t2_program = (0, ns t2_program) /\ length (ns t2_program) = 13%nat.
Proof. split; [exact C11_parse_encode_partial_T2_instance|reflexivity]. Qed.

(** outside T2: one table, three tables, a Scope directive in the first table, a Scope over an object of the first table *)
Example C11_fragment_T2_excludes :
  in_fragment_T2 [[AName (f0_nm 0x41 0x42 0x43 0x44) (AConst 1 0)]] = false /\
  in_fragment_T2 [[]; []; []] = false /\
  in_fragment_T2 [[AScope 1 (mkName true 0 false [seg4 0x5f 0x53 0x42 0x5f]) []]; []] = false /\
  in_fragment_T2 [[ADevice 1 (f0_nm 0x44 0x45 0x56 0x30) []]; [AScope 1 (f0_nm 0x44 0x45 0x56 0x30) []]] = false.
Proof. vm_compute. repeat split. Qed.

(** ---- F6: Name declarations with string values (also the empty string, also inside Scope / Device / Method) ---- *)
Definition f6_program : list (list ast) :=
  [[AName (f0_nm 0x5f 0x48 0x49 0x44) (AStr [0x50; 0x4e; 0x50; 0x30; 0x41; 0x30; 0x33]);
    AName (f0_nm 0x45 0x4d 0x50 0x54) (AStr []);
    AScope 1 (mkName true 0 false [seg4 0x5f 0x53 0x42 0x5f])
      [ADevice 1 (f0_nm 0x44 0x45 0x56 0x30)
         [AName (f0_nm 0x5f 0x48 0x49 0x44) (AStr [0x41; 0x43; 0x50; 0x49; 0x30; 0x30; 0x30; 0x33]);
          AName (f0_nm 0x5f 0x55 0x49 0x44) (AConst OP_BYTE 1);
          AMethod 1 (f0_nm 0x4d 0x54 0x48 0x30) 0 [AName (f0_nm 0x53 0x54 0x52 0x30) (AStr [0x7f; 0x01; 0x20])]]];
    AName (f0_nm 0x5a 0x5a 0x5a 0x5a) (AConst 0x00 0)]].

Example C11_parse_encode_partial_F6_nonvacuous :
  wf_program f6_program = true /\ in_fragment_F6 f6_program = true /\ in_fragment_F5 f6_program = false /\
  in_fragment_F6 f5_program = true /\ in_fragment_F6 f4_program = true /\ in_fragment_F6 f0_program = true.
Proof. vm_compute. repeat split. Qed.

Example C11_parse_encode_partial_F6_instance : parse_encode_statement f6_program.
Proof. apply C11_parse_encode_partial_F6; vm_compute; reflexivity. Qed.

Example C11_parse_encode_partial_F6_run : parse_program f6_program = (0, ns f6_program) /\ length (ns f6_program) = 8%nat.
Proof. split; [exact C11_parse_encode_partial_F6_instance|reflexivity]. Qed.

(** outside F6: Buffer and Package values, a root-prefixed name; a string with a byte above 0x7f is not well formed *)
Example C11_fragment_F6_excludes :
  in_fragment_F6 [[AName (f0_nm 0x42 0x55 0x46 0x30) (ABuffer 1 (AConst OP_BYTE 2) [1; 2])]] = false /\
  in_fragment_F6 [[AName (f0_nm 0x50 0x4b 0x47 0x30) (APackage 1 1 [AConst 1 0])]] = false /\
  in_fragment_F6 [[AName (mkName true 0 false [seg4 0x53 0x54 0x52 0x30]) (AStr [0x41])]] = false /\
  wf_program [[AName (f0_nm 0x53 0x54 0x52 0x30) (AStr [0x80])]] = false.
Proof. vm_compute. repeat split. Qed.

(** ---- F7: Name declarations whose value is a package of integer constants and strings (empty package, fewer elements
    than announced, every constant form, a string element, inside Scope / Device / Method) ---- *)
Definition f7_program : list (list ast) :=
  [[AName (f0_nm 0x5f 0x50 0x52 0x57) (APackage 1 2 [AConst OP_BYTE 0x18; AConst 0x00 0]);
    AName (f0_nm 0x45 0x4d 0x50 0x54) (APackage 1 0 []);
    AName (f0_nm 0x50 0x4b 0x47 0x34) (APackage 1 4 [AConst OP_WORD 0x1234]);
    AScope 2 (mkName true 0 false [seg4 0x5f 0x53 0x42 0x5f])
      [ADevice 2 (f0_nm 0x44 0x45 0x56 0x30)
         [AName (f0_nm 0x5f 0x48 0x49 0x44) (AStr [0x41; 0x43; 0x50; 0x49; 0x30; 0x30; 0x30; 0x33]);
          AName (f0_nm 0x5f 0x53 0x35 0x5f) (APackage 1 5 [AConst OP_BYTE 5; AStr [0x41; 0x42]; AConst 0xff 0; AConst OP_QWORD 0x1122334455667788; AConst OP_DWORD 7]);
          AMethod 1 (f0_nm 0x4d 0x54 0x48 0x30) 0 [AName (f0_nm 0x53 0x54 0x52 0x30) (APackage 1 1 [AStr []])]]];
    AName (f0_nm 0x5a 0x5a 0x5a 0x5a) (AConst 0x01 0)]].

Example C11_parse_encode_partial_F7_nonvacuous :
  wf_program f7_program = true /\ in_fragment_F7 f7_program = true /\ in_fragment_F6 f7_program = false /\
  in_fragment_F7 f6_program = true /\ in_fragment_F7 f5_program = true /\ in_fragment_F7 f4_program = true /\ in_fragment_F7 f0_program = true.
Proof. vm_compute. repeat split. Qed.

Example C11_parse_encode_partial_F7_instance : parse_encode_statement f7_program.
Proof. apply C11_parse_encode_partial_F7; vm_compute; reflexivity. Qed.

Example C11_parse_encode_partial_F7_run : parse_program f7_program = (0, ns f7_program) /\ length (ns f7_program) = 9%nat.
Proof. split; [exact C11_parse_encode_partial_F7_instance|reflexivity]. Qed.

(** outside F7: a nested package, a name as package element, a Buffer value; a package whose element count does not fit a byte is not well formed *)
Example C11_fragment_F7_excludes :
  in_fragment_F7 [[AName (f0_nm 0x50 0x4b 0x47 0x30) (APackage 1 1 [APackage 1 0 []])]] = false /\
  in_fragment_F7 [[AName (f0_nm 0x50 0x4b 0x47 0x30) (APackage 1 1 [ARef (f0_nm 0x41 0x42 0x43 0x44)])]] = false /\
  in_fragment_F7 [[AName (f0_nm 0x42 0x55 0x46 0x30) (ABuffer 1 (AConst OP_BYTE 2) [1; 2])]] = false /\
  wf_program [[AName (f0_nm 0x50 0x4b 0x47 0x30) (APackage 1 256 [])]] = false.
Proof. vm_compute. repeat split. Qed.

(** ---- T2F7: two tables with string and package values in both ---- *)
Definition t2f7_program : list (list ast) :=
  [[ADevice 1 (f0_nm 0x44 0x45 0x56 0x30)
      [AName (f0_nm 0x5f 0x48 0x49 0x44) (AStr [0x50; 0x4e; 0x50; 0x30; 0x41; 0x30; 0x33]);
       AName (f0_nm 0x5f 0x50 0x52 0x57) (APackage 1 2 [AConst OP_BYTE 0x18; AConst OP_BYTE 4])];
    AName (f0_nm 0x5f 0x53 0x35 0x5f) (APackage 1 4 [AConst OP_BYTE 5; AConst 0x00 0; AConst 0x00 0; AConst 0x00 0]);
    AOpRegion (f0_nm 0x52 0x45 0x47 0x30) 1 (AConst OP_WORD 0x0cf8) (AConst OP_BYTE 8)];
   [AName (f0_nm 0x53 0x53 0x44 0x54) (AStr [0x73; 0x73; 0x64; 0x74]);
    AScope 1 (mkName true 0 false [seg4 0x5f 0x53 0x42 0x5f])
      [ADevice 1 (f0_nm 0x44 0x45 0x56 0x31)
         [AName (f0_nm 0x5f 0x43 0x49 0x44) (APackage 1 2 [AStr [0x41; 0x42]; AConst 0xff 0]);
          AName (f0_nm 0x5f 0x55 0x49 0x44) (AConst 0x01 0)];
       AEvent (f0_nm 0x45 0x56 0x54 0x30)];
    AName (f0_nm 0x45 0x4d 0x50 0x54) (APackage 1 0 [])]].

Example C11_parse_encode_partial_T2F7_nonvacuous :
  wf_program t2f7_program = true /\ in_fragment_T2F7 t2f7_program = true /\ in_fragment_T2 t2f7_program = false /\
  in_fragment_F7 t2f7_program = false /\ in_fragment_T2F7 t2_program = true.
Proof. vm_compute. repeat split. Qed.

Example C11_parse_encode_partial_T2F7_instance : parse_encode_statement t2f7_program.
Proof. apply C11_parse_encode_partial_T2F7; vm_compute; reflexivity. Qed.

Example C11_parse_encode_partial_T2F7_run : parse_program t2f7_program = (0, ns t2f7_program) /\ length (ns t2f7_program) = 11%nat.
Proof. split; [exact C11_parse_encode_partial_T2F7_instance|reflexivity]. Qed.

(** outside T2F7: one table, a Scope directive in the first table, a Buffer value, a nested package *)
Example C11_fragment_T2F7_excludes :
  in_fragment_T2F7 f7_program = false /\
  in_fragment_T2F7 [[AScope 1 (mkName true 0 false [seg4 0x5f 0x53 0x42 0x5f]) []]; []] = false /\
  in_fragment_T2F7 [[]; [AName (f0_nm 0x42 0x55 0x46 0x30) (ABuffer 1 (AConst OP_BYTE 2) [1; 2])]] = false /\
  in_fragment_T2F7 [[AName (f0_nm 0x50 0x4b 0x47 0x30) (APackage 1 1 [APackage 1 0 []])]; []] = false.
Proof. vm_compute. repeat split. Qed.

(** ---- TN: five tables (one of them empty), the last one with Scope directives ---- *)
Definition tn_program : list (list ast) :=
  [[ADevice 1 (f0_nm 0x44 0x45 0x56 0x30)
      [AName (f0_nm 0x5f 0x48 0x49 0x44) (AStr [0x50; 0x4e; 0x50; 0x30; 0x41; 0x30; 0x33]);
       AName (f0_nm 0x5f 0x50 0x52 0x57) (APackage 1 2 [AConst OP_BYTE 0x18; AConst OP_BYTE 4])];
    AOpRegion (f0_nm 0x52 0x45 0x47 0x30) 1 (AConst OP_WORD 0x0cf8) (AConst OP_BYTE 8)];
   [];
   [AName (f0_nm 0x53 0x53 0x44 0x31) (AStr [0x73; 0x73; 0x64; 0x74]);
    AProcessor 1 (f0_nm 0x43 0x50 0x55 0x30) 0 0x410 6 [AName (f0_nm 0x5f 0x55 0x49 0x44) (AConst 0x01 0)]];
   [AMethod 1 (f0_nm 0x4d 0x54 0x48 0x30) 2 []; AMutex (f0_nm 0x4d 0x54 0x58 0x30) 3];
   [AName (f0_nm 0x53 0x53 0x44 0x34) (AConst OP_DWORD 0xdeadbeef);
    AScope 1 (mkName true 0 false [seg4 0x5f 0x53 0x42 0x5f])
      [ADevice 1 (f0_nm 0x44 0x45 0x56 0x31)
         [AName (f0_nm 0x5f 0x43 0x49 0x44) (APackage 1 2 [AStr [0x41; 0x42]; AConst 0xff 0])];
       AEvent (f0_nm 0x45 0x56 0x54 0x30)];
    AScope 1 (mkName false 0 false [seg4 0x5f 0x54 0x5a 0x5f]) [AThermal 1 (f0_nm 0x54 0x5a 0x30 0x30) []];
    AName (f0_nm 0x45 0x4d 0x50 0x54) (APackage 1 0 [])]].

Example C11_parse_encode_partial_TN_nonvacuous :
  wf_program tn_program = true /\ in_fragment_TN tn_program = true /\ in_fragment_T2F7 tn_program = false /\
  in_fragment_TN f7_program = true /\ in_fragment_TN f6_program = true /\ in_fragment_TN f0_program = true /\
  in_fragment_TN t2_program = true /\ in_fragment_TN t2f7_program = true /\ in_fragment_TN [[]] = true /\ in_fragment_TN [[]; []; []] = true.
Proof. vm_compute. repeat split. Qed.

Example C11_parse_encode_partial_TN_instance : parse_encode_statement tn_program.
Proof. apply C11_parse_encode_partial_TN; vm_compute; reflexivity. Qed.

Example C11_parse_encode_partial_TN_run : parse_program tn_program = (0, ns tn_program) /\ length (ns tn_program) = 15%nat.
Proof. split; [exact C11_parse_encode_partial_TN_instance|reflexivity]. Qed.

(** outside TN: no table at all, a Scope directive in a table that is not the last, a Buffer value, a nested package *)
Example C11_fragment_TN_excludes :
  in_fragment_TN [] = false /\
  in_fragment_TN [[AScope 1 (mkName true 0 false [seg4 0x5f 0x53 0x42 0x5f]) []]; []] = false /\
  in_fragment_TN [[]; [AScope 1 (mkName true 0 false [seg4 0x5f 0x53 0x42 0x5f]) []]; []] = false /\
  in_fragment_TN [[]; [AName (f0_nm 0x42 0x55 0x46 0x30) (ABuffer 1 (AConst OP_BYTE 2) [1; 2])]] = false /\
  in_fragment_TN [[AName (f0_nm 0x50 0x4b 0x47 0x30) (APackage 1 1 [APackage 1 0 []])]; []] = false.
Proof. vm_compute. repeat split. Qed.

(** ---- F8: nested packages (a _PSS-like table, an empty inner package, depth three, inside Scope / Device) ---- *)
Definition f8_program : list (list ast) :=
  [[AName (f0_nm 0x5f 0x50 0x53 0x53)
      (APackage 1 2 [APackage 1 2 [AConst OP_BYTE 1; AConst OP_WORD 0x1234]; APackage 1 3 [AStr [0x41]; APackage 1 0 []; AConst 0xff 0]]);
    AScope 1 (mkName true 0 false [seg4 0x5f 0x53 0x42 0x5f])
      [ADevice 1 (f0_nm 0x44 0x45 0x56 0x30) [AName (f0_nm 0x5f 0x50 0x52 0x54) (APackage 1 1 [APackage 1 1 [APackage 1 1 [AConst 0 0]]])]];
    AName (f0_nm 0x5a 0x5a 0x5a 0x5a) (AConst 0x01 0)]].

Example C11_parse_encode_partial_F8_nonvacuous :
  wf_program f8_program = true /\ in_fragment_F8 f8_program = true /\ in_fragment_F7 f8_program = false /\
  in_fragment_F8 f7_program = true /\ in_fragment_F8 f6_program = true /\ in_fragment_F8 f0_program = true.
Proof. vm_compute. repeat split. Qed.

Example C11_parse_encode_partial_F8_instance : parse_encode_statement f8_program.
Proof. apply C11_parse_encode_partial_F8; vm_compute; reflexivity. Qed.

Example C11_parse_encode_partial_F8_run : parse_program f8_program = (0, ns f8_program) /\ length (ns f8_program) = 4%nat.
Proof. split; [exact C11_parse_encode_partial_F8_instance|reflexivity]. Qed.

(** outside F8: a name as element of an inner package, a Buffer as element, two tables *)
Example C11_fragment_F8_excludes :
  in_fragment_F8 [[AName (f0_nm 0x50 0x4b 0x47 0x30) (APackage 1 1 [APackage 1 1 [ARef (f0_nm 0x41 0x42 0x43 0x44)]])]] = false /\
  in_fragment_F8 [[AName (f0_nm 0x50 0x4b 0x47 0x30) (APackage 1 1 [ABuffer 1 (AConst OP_BYTE 2) [1; 2]])]] = false /\
  in_fragment_F8 [[]; []] = false.
Proof. vm_compute. repeat split. Qed.

(** ---- TN8: three tables with nested packages ---- *)
Definition tn8_program : list (list ast) :=
  [[AName (f0_nm 0x5f 0x50 0x53 0x53) (APackage 1 1 [APackage 1 2 [AConst OP_BYTE 1; AStr [0x42]]])];
   [];
   [AScope 1 (mkName true 0 false [seg4 0x5f 0x53 0x42 0x5f])
      [AName (f0_nm 0x50 0x4b 0x47 0x32) (APackage 1 2 [APackage 1 0 []; APackage 1 1 [APackage 1 0 []]])]]].

Example C11_parse_encode_partial_TN8_nonvacuous :
  wf_program tn8_program = true /\ in_fragment_TN8 tn8_program = true /\ in_fragment_TN tn8_program = false /\
  in_fragment_F8 tn8_program = false /\ in_fragment_TN8 tn_program = true /\ in_fragment_TN8 f8_program = true /\ in_fragment_TN8 t2f7_program = true.
Proof. vm_compute. repeat split. Qed.

Example C11_parse_encode_partial_TN8_instance : parse_encode_statement tn8_program.
Proof. apply C11_parse_encode_partial_TN8; vm_compute; reflexivity. Qed.

Example C11_parse_encode_partial_TN8_run : parse_program tn8_program = (0, ns tn8_program) /\ length (ns tn8_program) = 2%nat.
Proof. split; [exact C11_parse_encode_partial_TN8_instance|reflexivity]. Qed.

(** outside TN8: no table, a Scope directive before the last table, a name as package element *)
Example C11_fragment_TN8_excludes :
  in_fragment_TN8 [] = false /\
  in_fragment_TN8 [[AScope 1 (mkName true 0 false [seg4 0x5f 0x53 0x42 0x5f]) []]; []] = false /\
  in_fragment_TN8 [[]; [AName (f0_nm 0x50 0x4b 0x47 0x30) (APackage 1 1 [APackage 1 1 [ARef (f0_nm 0x41 0x42 0x43 0x44)]])]] = false.
Proof. vm_compute. repeat split. Qed.

(** ---- F9: statements with constant operands in Method bodies ---- *)
Definition f9_program : list (list ast) :=
  [[AName (f0_nm 0x41 0x42 0x43 0x44) (AConst OP_BYTE 7);
    AMethod 1 (f0_nm 0x4d 0x54 0x48 0x30) 2
      [AName (f0_nm 0x4c 0x4f 0x43 0x30) (AConst OP_BYTE 1);
       AOp 0x90 [AConst OP_BYTE 5; AConst 0x01 0];                      (* LAnd(5, One) *)
       AOp 0x121 [AConst OP_WORD 0x03e8];                               (* Sleep(1000) *)
       AOp 0xcc [];                                                     (* BreakPoint *)
       AOp 0xa4 [AConst 0x00 0]];                                       (* Return(Zero) *)
    ADevice 2 (f0_nm 0x44 0x45 0x56 0x30)
      [AMethod 1 (f0_nm 0x5f 0x53 0x54 0x41) 0 [AOp 0xa4 [AConst OP_BYTE 0x0f]];                       (* Method(_STA){Return(0x0F)} *)
       AMethod 1 (f0_nm 0x5f 0x48 0x49 0x44) 0 [AOp 0xa4 [AStr [0x50; 0x4e; 0x50; 0x30]]];             (* Return("PNP0") *)
       AProcessor 1 (f0_nm 0x43 0x50 0x55 0x30) 1 0x410 6
         [AMethod 2 (f0_nm 0x4d 0x54 0x48 0x31) 1 [AOp 0x93 [AConst OP_DWORD 0xdeadbeef; AConst 0xff 0]; AOp 0xa5 []]];
       AName (f0_nm 0x50 0x4b 0x47 0x30) (APackage 1 2 [AConst OP_BYTE 1; APackage 1 1 [AStr [0x41]]])];
    AMethod 1 (f0_nm 0x4d 0x54 0x48 0x32) 0 []]].

Example C11_parse_encode_partial_F9_nonvacuous :
  wf_program f9_program = true /\ in_fragment_F9 f9_program = true /\ in_fragment_F8 f9_program = false /\
  in_fragment_F9 f2_program = true /\ in_fragment_F9 f0_program = true.
Proof. vm_compute. repeat split. Qed.

Example C11_parse_encode_partial_F9_instance : parse_encode_statement f9_program.
Proof. apply C11_parse_encode_partial_F9; vm_compute; reflexivity. Qed.

Example C11_parse_encode_partial_F9_run : parse_program f9_program = (0, ns f9_program) /\ length (ns f9_program) = 10%nat.
Proof. split; [exact C11_parse_encode_partial_F9_instance|reflexivity]. Qed.

(** the operands end up below the operator: the entry of \DEV0._STA is Method, flags 0, then Return with one argument 0x0f *)
Example C11_parse_encode_partial_F9_sta :
  In [1; 2; seg4 0x44 0x45 0x56 0x30; seg4 0x5f 0x53 0x54 0x41; OP_METHOD; OP_BYTE; 1; 0; 0; 0xa4; 0; 1; OP_BYTE; 1; 0x0f; 0] (snd (parse_program f9_program)).
Proof. rewrite C11_parse_encode_partial_F9_instance. vm_compute. tauto. Qed.

(** statements outside Method bodies: anonymous entries of the top level and of a Device *)
Definition f9b_program : list (list ast) :=
  [[AOp 0x121 [AConst OP_BYTE 5];
    AName (f0_nm 0x41 0x42 0x43 0x44) (AConst 0x01 0);
    ADevice 1 (f0_nm 0x44 0x45 0x56 0x30)
      [AOp 0x93 [AConst OP_BYTE 5; AConst 0x00 0]; AName (f0_nm 0x41 0x42 0x43 0x44) (AConst 0x01 0); AOp 0xcc [];
       AMethod 1 (f0_nm 0x4d 0x54 0x48 0x30) 0 [AOp 0xa4 [AConst 0x01 0]]; AOp 0xa4 [AStr [0x41]]];
    AOp 0xa4 [AConst 0xff 0]]].

Example C11_parse_encode_partial_F9_anywhere :
  wf_program f9b_program = true /\ in_fragment_F9 f9b_program = true /\ parse_encode_statement f9b_program /\
  length (ns f9b_program) = 9%nat /\ In [2; 1; seg4 0x44 0x45 0x56 0x30; 0x93; 0; 2; OP_BYTE; 1; 5; 0; 0; 0; 0] (ns f9b_program).
Proof.
  split; [vm_compute; reflexivity|]. split; [vm_compute; reflexivity|].
  split; [apply C11_parse_encode_partial_F9; vm_compute; reflexivity|]. split; [vm_compute; reflexivity|vm_compute; tauto].
Qed.

(** outside F9: an operand that is a Local object, Store (has a Target), If, a Scope directive, two tables *)
Example C11_fragment_F9_excludes :
  in_fragment_F9 [[AMethod 1 (f0_nm 0x4d 0x54 0x48 0x30) 0 [AOp 0xa4 [AOp 0x60 []]]]] = false /\
  in_fragment_F9 [[AMethod 1 (f0_nm 0x4d 0x54 0x48 0x30) 0 [AOp 0x70 [AConst 0x01 0; AOp 0x60 []]]]] = false /\
  in_fragment_F9 [[AMethod 1 (f0_nm 0x4d 0x54 0x48 0x30) 0 [AIf 1 (AConst 0x01 0) [AOp 0xa4 [AConst 0x01 0]]]]] = false /\
  in_fragment_F9 [[AScope 1 (mkName true 0 false [seg4 0x5f 0x53 0x42 0x5f]) []]] = false /\
  in_fragment_F9 [[]; []] = false.
Proof. vm_compute. repeat split. Qed.
