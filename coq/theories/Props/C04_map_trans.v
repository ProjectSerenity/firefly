(** C04 - tie of walk, Map, Unmap, pteForAddress / Translate and MapTemporary (kernel/mm/vmm/pdt.go, map.go) to the
    source BY TRANSLATION.

    Gen/Trans_vmm_map.v is regenerated on every run by gen/gotrans in its "memory as state" mode
    (gen/gotrans/ext_mem.go, config gen/gotrans/vmm_map.json); see Props/C04_pdt_trans.v for the mode.  Here every raw
    pointer access is VIRTUAL ([PtAccess.vload] / [vstore]: resolved by the model of the 4-level MMU from cr3 in the
    state at the time of the access); the seams are ptePtrFn / nextAddrFn (identity, as in the kernel), flushTLBEntryFn,
    mm.AllocFrame (the model's allocator oracle), kernel.Memset (the model's page-zeroing step) and, in [walk], the
    function parameter walkFn itself.

    walk.  [C04_walk_is_translation]: for EVERY closure (any stateful [clo : level -> entry address -> st -> option
    (st * bool)]) the translation of walk calls ptePtrFn and then the closure on exactly the items of
    [PtAccess.walk_items virtAddr] - the level and the virtual address of that level's entry in the recursive window,
    the 64-bit arithmetic of the model's walks - in order, stops after the first [false], and panics iff the closure
    does.  This is the contract under which the closures of Map / Unmap / pteForAddress are translated as the body of
    [gvisit .. (walk_items ..)] (Lib/GoVisit.v).  Side condition: at least 5 units of loop fuel (four levels and the
    exit test; with 4 the translation reports GFuel).  The step from this theorem to the [gvisit] form inside Map / Unmap /
    pteForAddress is the translator's (no Coq lemma composes the two).

    Map, Unmap, Translate, MapTemporary.  The regenerated function returns the model's machine state and error
    (model code [e] as [T.err_of e]) resp. physical address, and panics exactly where the model reports [Stray]
    ([M.wmem] forgets the trace of seam calls, which the model does not describe; flushes and allocations are part of
    the state).  Unmap and Translate: for every state with 64-bit memory words.  Map: flags < 2^64 (no bound on page
    or frame).  Map and MapTemporary: in addition
    under [M.map_stable]: the model resolves the entry address of a level ONCE and writes the new entry in one store,
    while the Go code dereferences the pointer again after each of its stores (the store of 0, SetFrame, SetFlags); the
    two agree when the entry is still found at its address after having been overwritten ([M.entry_stable]) - always so
    when the hardware walk that resolves the entry address does not read the entry itself ([M.map_stable_b], decidable,
    [C04_map_stable_decidable]), i.e. for pages outside the recursive slot 511 of a tree-shaped table hierarchy, the
    domain of C04's theorems.  Outside it (e.g. mapping a page of slot 511, see the examples) the Go code saws off the
    branch it sits on: the next dereference faults, where the hand-written model carries on.
    [C04_map_is_translation_inv] / [C04_map_temporary_is_translation_inv] discharge the side condition IN GENERAL on the
    domain of C04's theorems: for every state satisfying the invariant [Inv] (tree-shaped hierarchy with the recursive
    slot, fresh allocator frames) and every page outside the recursive window ([hw_idx page 0 <> 511]) the regenerated
    Map equals the model's [map_page] - no per-state check.  The examples keep the differing case (the page of
    pdtVirtualAddr itself).
    Statements only; proofs are in Vmm/MapTrans.v and Vmm/StableInv.v, except that [C04_map_is_translation_calls_inv] is
    composed here from [C04_map_is_translation_calls] and [C04_map_stable_inv]. *)
From Coq Require Import NArith String List Bool.
From FF Require Import Lib.Word Lib.GoOps Gen.Consts_mm_vmm Gen.Trans_vmm_map Vmm.Pt Vmm.PtAccess.
From FF Require Vmm.MapTrans Vmm.PdtTrans Vmm.StableInv.
From FF Require Import Vmm.PtMap.
Module M := FF.Vmm.MapTrans.
Module T := FF.Vmm.PdtTrans.
Import ListNotations.
Local Open Scope N_scope.

Theorem C04_walk_is_translation :
  forall (clo : N -> N -> st -> option (st * bool)) (va : N) (s : st) (tr0 : list gcall) (fuel : nat),
    (5 <= fuel)%nat ->
    go_vmm_walk fuel (mk_go_vmm_world tr0 s) va M.o_id (M.o_clo clo) = M.walk_model clo (walk_items va) tr0 s.
Proof. exact M.walk_is_translation. Qed.
Print Assumptions C04_walk_is_translation.

Theorem C04_map_is_translation :
  forall (page frame flags : N) (s : st) (tr0 : list gcall),
    flags < two64 -> T.mem_w64 s ->
    M.map_stable go_levels 0 vmm_pdtVirtualAddr (frame_addr page) s ->
    M.wmem (go_vmm_Map (mk_go_vmm_world tr0 s) page frame flags T.o_flush T.o_memset M.o_alloc M.o_id) =
    match map_page page frame flags s with
    | Stray => GPanic
    | Ok (s', e) => GOk (s', T.err_of e)
    end.
Proof. exact M.map_is_translation. Qed.
Print Assumptions C04_map_is_translation.

Theorem C04_unmap_is_translation :
  forall (page : N) (s : st) (tr0 : list gcall),
    T.mem_w64 s ->
    M.wmem (go_vmm_Unmap (mk_go_vmm_world tr0 s) page T.o_flush) =
    match unmap_page page s with
    | Stray => GPanic
    | Ok (s', e) => GOk (s', T.err_of e)
    end.
Proof. exact M.unmap_is_translation. Qed.
Print Assumptions C04_unmap_is_translation.

Theorem C04_translate_is_translation :
  forall (va : N) (s : st) (tr0 : list gcall),
    T.mem_w64 s ->
    go_vmm_Translate (mk_go_vmm_world tr0 s) va =
    match translate va s with
    | Stray => GPanic
    | Ok (e, pa) => GOk (mk_go_vmm_world tr0 s, (pa, T.err_of e))
    end.
Proof. exact M.translate_is_translation. Qed.
Print Assumptions C04_translate_is_translation.

Theorem C04_map_temporary_is_translation :
  forall (frame : N) (s : st) (tr0 : list gcall),
    T.mem_w64 s ->
    M.map_stable go_levels 0 vmm_pdtVirtualAddr (frame_addr temp_page) s ->
    M.wmem (go_vmm_MapTemporary (mk_go_vmm_world tr0 s) frame T.o_flush T.o_memset M.o_alloc M.o_id) =
    match map_temporary frame s with
    | Stray => GPanic
    | Ok (s', e, p) => GOk (s', (p, T.err_of e))
    end.
Proof. exact M.map_temporary_is_translation. Qed.
Print Assumptions C04_map_temporary_is_translation.

(** the zero-frame guard at the top of Map, on its own: once armed, a writable mapping of the zero frame is refused by
    the regenerated function with errAttemptToRWMapReservedFrame, nothing is touched and no seam is called - for every
    state, with no side condition (the C06 clause, for the translated source) *)
Theorem C04_map_guard_is_translation :
  forall (page flags : N) (s : st) (tr0 : list gcall) o1 o2 o3 o4,
    prot s = true -> N.land flags vmm_FlagRW <> 0 ->
    go_vmm_Map (mk_go_vmm_world tr0 s) page (zf s) flags o1 o2 o3 o4 =
    GOk (mk_go_vmm_world tr0 s, Some "errAttemptToRWMapReservedFrame"%string).
Proof. exact M.map_guard_is_translation. Qed.
Print Assumptions C04_map_guard_is_translation.

Theorem C04_map_stable_decidable :
  forall (page : N) (s : st),
    M.map_stable_b go_levels 0 vmm_pdtVirtualAddr (frame_addr page) s = true ->
    M.map_stable go_levels 0 vmm_pdtVirtualAddr (frame_addr page) s.
Proof. intros page s. apply M.map_stable_b_ok. Qed.
Print Assumptions C04_map_stable_decidable.

(** the same on the whole domain of C04_map_ok: the invariant and a page outside the recursive window *)
Theorem C04_map_is_translation_inv :
  forall (s : st) (A T : N) (own : PtTree.ownmap) (page frame flags : N) (tr0 : list gcall),
    Inv s A T own -> hw_idx page 0 <> 511 -> flags < two64 -> T.mem_w64 s ->
    M.wmem (go_vmm_Map (mk_go_vmm_world tr0 s) page frame flags T.o_flush T.o_memset M.o_alloc M.o_id) =
    match map_page page frame flags s with
    | Stray => GPanic
    | Ok (s', e) => GOk (s', T.err_of e)
    end.
Proof. exact StableInv.map_is_translation_inv. Qed.
Print Assumptions C04_map_is_translation_inv.

Theorem C04_map_temporary_is_translation_inv :
  forall (s : st) (A T : N) (own : PtTree.ownmap) (frame : N) (tr0 : list gcall),
    Inv s A T own -> T.mem_w64 s ->
    M.wmem (go_vmm_MapTemporary (mk_go_vmm_world tr0 s) frame T.o_flush T.o_memset M.o_alloc M.o_id) =
    match map_temporary frame s with
    | Stray => GPanic
    | Ok (s', e, p) => GOk (s', (p, T.err_of e))
    end.
Proof. exact StableInv.map_temporary_is_translation_inv. Qed.
Print Assumptions C04_map_temporary_is_translation_inv.

Theorem C04_map_stable_inv :
  forall (s : st) (A T : N) (own : PtTree.ownmap) (page : N),
    Inv s A T own -> hw_idx page 0 <> 511 ->
    M.map_stable go_levels 0 vmm_pdtVirtualAddr (frame_addr page) s.
Proof. intros s A T own page. apply StableInv.map_stable_inv. Qed.
Print Assumptions C04_map_stable_inv.

(** ---- with the exact sequence of seam calls ----
    [M.map_page_tr] is [map_page] with the seam calls written next to it - mm.AllocFrame, nextAddrFn, kernel.Memset for
    every table created (in that order), flushTLBEntryFn of the page at the leaf - and [C04_map_tr_is_model] says that
    forgetting them gives [map_page] exactly.  The regenerated Map / Unmap make exactly these calls, in this order. *)
Theorem C04_map_is_translation_calls :
  forall (page frame flags : N) (s : st) (tr0 : list gcall),
    flags < two64 -> T.mem_w64 s ->
    M.map_stable go_levels 0 vmm_pdtVirtualAddr (frame_addr page) s ->
    go_vmm_Map (mk_go_vmm_world tr0 s) page frame flags T.o_flush T.o_memset M.o_alloc M.o_id =
    match M.map_page_tr page frame flags s tr0 with
    | None => GPanic
    | Some (s', e, tr') => GOk (mk_go_vmm_world tr' s', T.err_of e)
    end.
Proof. exact M.map_is_translation_calls. Qed.
Print Assumptions C04_map_is_translation_calls.

Theorem C04_map_tr_is_model :
  forall (page frame flags : N) (s : st) (tr0 : list gcall),
    match M.map_page_tr page frame flags s tr0 with
    | None => Stray
    | Some (s', e, _) => Ok (s', e)
    end = map_page page frame flags s.
Proof. exact M.map_page_tr_model. Qed.
Print Assumptions C04_map_tr_is_model.

Theorem C04_map_is_translation_calls_inv :
  forall (s : st) (A T : N) (own : PtTree.ownmap) (page frame flags : N) (tr0 : list gcall),
    Inv s A T own -> hw_idx page 0 <> 511 -> flags < two64 -> T.mem_w64 s ->
    go_vmm_Map (mk_go_vmm_world tr0 s) page frame flags T.o_flush T.o_memset M.o_alloc M.o_id =
    match M.map_page_tr page frame flags s tr0 with
    | None => GPanic
    | Some (s', e, tr') => GOk (mk_go_vmm_world tr' s', T.err_of e)
    end.
Proof.
  intros s A T own page frame flags tr0 HI H511 Hfl Hw.
  apply M.map_is_translation_calls; try assumption. eapply StableInv.map_stable_inv; eassumption.
Qed.
Print Assumptions C04_map_is_translation_calls_inv.

(** Unmap: one flushTLBEntryFn of the page, exactly when it succeeds *)
Theorem C04_unmap_is_translation_calls :
  forall (page : N) (s : st) (tr0 : list gcall),
    T.mem_w64 s ->
    go_vmm_Unmap (mk_go_vmm_world tr0 s) page T.o_flush =
    match unmap_page page s with
    | Stray => GPanic
    | Ok (s', e) => GOk (mk_go_vmm_world (if e =? 0 then T.ev_flush (frame_addr page) :: tr0 else tr0) s', T.err_of e)
    end.
Proof. exact M.unmap_is_translation_calls. Qed.
Print Assumptions C04_unmap_is_translation_calls.
