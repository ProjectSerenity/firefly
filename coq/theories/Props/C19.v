(** C19 — console drivers paint exactly the addressed cells, never outside the framebuffer.
    Statements; the proofs are lemmas of Console/*Proofs.v and Console/C19Lemmas.v, or follow from them in a step or two.

    Models: Console/Vga.v (VgaTextConsole) and Console/Vesa.v (VesaFbConsole): uint32/uint16/uint8
    arithmetic with explicit wrap-around; every framebuffer / font / palette access bounds-checked;
    an operation returns [Ok m'] (new memory), [Panic m'] (Go run-time panic) or [OutOfFuel m'].
    [load m i] is element [i] of the framebuffer, [flen m] its length.

    Geometry hypotheses: [vga_wf] (W,H >= 1, W*H < 2^32, buffer = W*H cells) and [vesa_wf]
    (grid w,h >= 1 and bytespp as SetFont / NewVesaFbConsole compute them; pitch >= w*bytespp; h*pitch < 2^32;
    buffer = h*pitch bytes; font 8..16 wide, at least 1 high, (width+7)/8 bytes per row, 256 glyphs, data < 2^32
    bytes; offsetY <= h; depth 8/15/16/24/32; 256 palette entries) — see Console/VgaProofs.v,
    Console/VesaProofs.v.  Arguments: ANY natural number where no bound is stated (so in
    particular every 32-bit value).  The pixel-level reference painter ([write_ref], [fill_ref],
    [scroll_ref], [place_of], [cell_of], [glyph_bit]) is in Console/VesaSpec.v, the cell-level
    semantics ([in_grid], [in_fill], [g_write], [g_fill], [g_scroll]) in Console/Grid.v. *)
From Coq Require Import NArith List Bool.
From FF Require Import Lib.Word Gen.Consts_device_video_console.
From FF Require Import Console.Mem Console.Ops Console.Grid Console.Vga Console.VgaProofs.
From FF Require Import Console.Vesa Console.VesaSpec Console.VesaProofs.
From FF Require Import Console.VesaFillProofs Console.VesaScrollProofs Console.VesaWriteProofs Console.C19Lemmas Console.VesaGridProofs.
Import ListNotations.
Local Open Scope N_scope.

(** ======================= text-mode console ======================= *)

(** write_cell: Write(ch,fg,bg,x,y) never panics; for (x,y) in the grid exactly the element of that
    cell changes, to ((bg<<4|fg)<<8)|ch with colours above the palette replaced by the defaults;
    for (x,y) outside the grid nothing changes. *)
Theorem C19_vga_write_cell :
  forall c m ch fg bg x y, vga_wf c m -> x < two32 -> y < two32 ->
  exists m', vga_write c m ch fg bg x y = Ok m' /\ flen m' = flen m /\
    forall i, load m' i =
      if in_grid (vga_grid c m) x y && (i =? cell_idx c x y)
      then cell16 (text_colour vga_defaultBg bg) (text_colour vga_defaultFg fg) ch
      else load m i.
Proof. exact vga_write_spec. Qed.
Print Assumptions C19_vga_write_cell.

(** the cell value for the sixteen colours, and the treatment of larger values *)
Theorem C19_vga_cell_value :
  forall bg fg ch, bg <= 15 -> fg <= 15 -> ch <= 255 -> cell16 bg fg ch = (bg * 16 + fg) * 256 + ch.
Proof. exact cell16_value. Qed.
Print Assumptions C19_vga_cell_value.

Theorem C19_vga_colour_range :
  vga_maxColorIndex = vga_paletteLen - 1 /\
  (forall dflt v, v <= vga_maxColorIndex -> text_colour dflt v = v) /\
  (forall dflt v, vga_maxColorIndex < v -> text_colour dflt v = dflt).
Proof. exact (conj vga_max_colour (conj text_colour_in_range text_colour_default)). Qed.
Print Assumptions C19_vga_colour_range.

(** fill_clip: for EVERY x, y, width, height (no bound at all) Fill never panics and a cell of the
    grid changes iff it lies in the rectangle whose origin is clamped into the grid and whose
    extent is clipped at the right and bottom edges ([in_fill]); it then holds the attribute
    (bg<<4|fg) and the clear character; all other cells are unchanged. *)
Theorem C19_vga_fill_clip :
  forall c m x y width height fg bg, vga_wf c m ->
  exists m', vga_fill c m x y width height fg bg = Ok m' /\ flen m' = flen m /\
    forall cx cy, in_grid (vga_grid c m) cx cy = true ->
      load m' (cell_idx c cx cy) =
        if in_fill (vga_grid c m) x y width height cx cy
        then N.lor (attr16 bg fg) vga_clearChar
        else load m (cell_idx c cx cy).
Proof. exact vga_fill_spec. Qed.
Print Assumptions C19_vga_fill_clip.

(** the value Fill stores, for the sixteen colours: attribute (bg<<4|fg), clear character *)
Theorem C19_vga_fill_value :
  forall bg fg, bg <= 15 -> fg <= 15 ->
  N.lor (attr16 bg fg) vga_clearChar = (bg * 16 + fg) * 256 + vga_clearChar.
Proof. intros bg fg Hb Hf. rewrite attr16_value by assumption. apply (lor_shifted _ _ 8). reflexivity. Qed.
Print Assumptions C19_vga_fill_value.

(** the cells are all there is: every element of the framebuffer is a cell of the grid *)
Theorem C19_vga_cells_cover :
  forall c m i, vga_wf c m -> i < flen m ->
  exists x y, 1 <= x <= vw c /\ 1 <= y <= vh c /\ i = cell_idx c x y.
Proof. exact cell_idx_surj. Qed.
Print Assumptions C19_vga_cells_cover.

(** scroll_lines: Scroll never panics; for 1 <= lines <= height every element receives the element
    [lines] rows below (up) / above (down), the vacated rows keep their content; any other line
    count (and any value that is not a scroll direction) changes nothing. *)
Theorem C19_vga_scroll_lines :
  forall c m dir lines, vga_wf c m -> lines < two32 ->
  exists m', vga_scroll c m dir lines = Ok m' /\ flen m' = flen m /\
    forall i, load m' i =
      match dir_of dir with
      | Some d => if scroll_ok (vga_grid c m) lines then vga_scrolled c m d lines i else load m i
      | None => load m i
      end.
Proof. exact vga_scroll_spec. Qed.
Print Assumptions C19_vga_scroll_lines.

(** the three operations refine the cell-level semantics of Console/Grid.v (used by C18) *)
Theorem C19_vga_refines_grid :
  forall c m, vga_wf c m ->
  (forall ch fg bg x y, x < two32 -> y < two32 ->
     exists m', vga_write c m ch fg bg x y = Ok m' /\ vga_wf c m' /\
       grid_eq (vga_grid c m')
               (g_write (vga_grid c m) x y (cell16 (text_colour vga_defaultBg bg) (text_colour vga_defaultFg fg) ch))) /\
  (forall x y width height fg bg,
     exists m', vga_fill c m x y width height fg bg = Ok m' /\ vga_wf c m' /\
       grid_eq (vga_grid c m') (g_fill (vga_grid c m) x y width height (N.lor (attr16 bg fg) vga_clearChar))) /\
  (forall dir d lines, lines < two32 -> dir_of dir = Some d ->
     exists m', vga_scroll c m dir lines = Ok m' /\ vga_wf c m' /\
       grid_eq (vga_grid c m') (g_scroll (vga_grid c m) d lines (gcell (vga_grid c m)))).
Proof.
  intros c m W. split; [|split].
  - intros. now apply vga_write_refines.
  - intros. now apply vga_fill_refines.
  - intros. now apply vga_scroll_refines.
Qed.
Print Assumptions C19_vga_refines_grid.

(** no_escape: no operation ever indexes outside the W*H cells (no Panic, no OutOfFuel), for every
    32-bit argument; the buffer keeps its length. *)
Theorem C19_vga_no_escape :
  forall c m, vga_wf c m ->
  (forall ch fg bg x y, x < two32 -> y < two32 ->
     exists m', vga_write c m ch fg bg x y = Ok m' /\ flen m' = flen m) /\
  (forall x y width height fg bg,
     exists m', vga_fill c m x y width height fg bg = Ok m' /\ flen m' = flen m) /\
  (forall dir lines, lines < two32 ->
     exists m', vga_scroll c m dir lines = Ok m' /\ flen m' = flen m).
Proof.
  intros c m W. repeat split.
  - intros ch fg bg x y Hx Hy. destruct (vga_write_spec c m ch fg bg x y W Hx Hy) as [m' [E [E1 _]]]. eauto.
  - intros x y w h fg bg. destruct (vga_fill_spec c m x y w h fg bg W) as [m' [E [E1 _]]]. eauto.
  - intros dir lines Hl. destruct (vga_scroll_spec c m dir lines W Hl) as [m' [E [E1 _]]]. eauto.
Qed.
Print Assumptions C19_vga_no_escape.

(** ======================= framebuffer console ======================= *)

(** the hypotheses [wchars], [hchars], [bytespp], [offsetY] of [vesa_wf] are what NewVesaFbConsole,
    SetLogo and SetFont compute *)
Theorem C19_vesa_constructed :
  forall w0 h0 bpp0 pitch0 ci plen p lh f c,
  set_font (if lh =? 0 then new_vesa w0 h0 bpp0 pitch0 ci plen p
            else set_logo_height (new_vesa w0 h0 bpp0 pitch0 ci plen p) lh) f = Some c ->
  lh <= h0 -> h0 < two32 ->
  fnt c = Some f /\ bpp c = bpp0 /\ bytespp c = N.shiftr (w8 (bpp0 + 1)) 3 /\
  pw c = w0 /\ ph c = h0 /\ offsetY c = lh /\ pitch c = pitch0 /\
  wchars c = w0 / f_gw f /\ hchars c = (h0 - lh) / f_gh f /\ pal_len c = plen.
Proof. exact set_font_fields. Qed.
Print Assumptions C19_vesa_constructed.

(** write_cell: Write never panics; every byte of the framebuffer afterwards is what the reference
    painter says: for (x,y) in the grid the colour bytes of the pixels of that cell show the
    glyph (fg where the glyph bit is set, bg elsewhere, [pixel_bytes] = packColor of the palette
    entry), every other byte — other cells, margins, logo rows, padding, the 4th byte of a 32-bit
    pixel — is unchanged; for (x,y) outside the grid nothing changes. *)
Theorem C19_vesa_write_cell :
  forall c f d m ch fg bg x y,
  vesa_wf c f d m -> ch < 256 -> fg < 256 -> bg < 256 -> x < two32 -> y < two32 ->
  exists m' fgb bgb, pixel_bytes c d fg = Some fgb /\ pixel_bytes c d bg = Some bgb /\
    vesa_write c m ch fg bg x y = Ok m' /\ flen m' = flen m /\
    forall i, load m' i = if in_grid (vesa_dims c) x y then write_ref c f d m ch x y fgb bgb i else load m i.
Proof. exact vesa_write_spec. Qed.
Print Assumptions C19_vesa_write_cell.

(** fill_clip: for EVERY x, y, width, height (no bound at all) Fill never panics and every byte
    afterwards is what the reference painter says: the colour bytes of the pixels of the cells in
    the clamped and clipped rectangle ([in_fill]) hold bg, every other byte is unchanged. *)
Theorem C19_vesa_fill_clip :
  forall c f d m x y width height fg bg,
  vesa_wf c f d m -> bg < 256 ->
  exists m' bgb, pixel_bytes c d bg = Some bgb /\
    vesa_fill c m x y width height fg bg = Ok m' /\ flen m' = flen m /\
    forall i, load m' i = fill_ref c f d m x y width height bgb i.
Proof. exact vesa_fill_spec. Qed.
Print Assumptions C19_vesa_fill_clip.

(** scroll_lines: Scroll never panics; for 1 <= lines <= grid height every visible byte below the
    logo receives the byte [lines] text lines further down (up) / up (down) where such a row
    exists, logo rows and padding are unchanged; any other line count (and any value that is
    not a scroll direction) changes nothing. *)
Theorem C19_vesa_scroll_rows :
  forall c f d m dir lines, vesa_wf c f d m -> lines < two32 ->
  exists m', vesa_scroll c m dir lines = Ok m' /\ flen m' = flen m /\
    forall i, load m' i =
      match dir_of dir with
      | Some sd => if scroll_ok (vesa_dims c) lines then scroll_ref c f m sd lines i else load m i
      | None => load m i
      end.
Proof. exact vesa_scroll_spec. Qed.
Print Assumptions C19_vesa_scroll_rows.

(** ... in terms of text lines: line cy shows what line cy+lines (up) / cy-lines (down) showed *)
Theorem C19_vesa_scroll_lines :
  forall c f d m dir lines sd,
  vesa_wf c f d m -> lines < two32 -> dir_of dir = Some sd -> scroll_ok (vesa_dims c) lines = true ->
  exists m', vesa_scroll c m dir lines = Ok m' /\ flen m' = flen m /\
    forall cy r b, 1 <= cy <= hchars c -> r < f_gh f -> b < pw c * bytespp c ->
      match sd with
      | ScrollUp => cy + lines <= hchars c ->
          load m' (line_row c f cy r * pitch c + b) = load m (line_row c f (cy + lines) r * pitch c + b)
      | ScrollDown => lines < cy ->
          load m' (line_row c f cy r * pitch c + b) = load m (line_row c f (cy - lines) r * pitch c + b)
      end.
Proof. exact vesa_scroll_lines. Qed.
Print Assumptions C19_vesa_scroll_lines.

(** no_escape: no operation ever stores outside [0, h*pitch) (no Panic, no OutOfFuel; the buffer
    keeps its length), no padding byte between rows changes, and a scroll leaves the logo rows
    alone — for every argument. *)
Theorem C19_vesa_no_escape :
  forall c f d m, vesa_wf c f d m ->
  (forall ch fg bg x y, ch < 256 -> fg < 256 -> bg < 256 -> x < two32 -> y < two32 ->
     exists m', vesa_write c m ch fg bg x y = Ok m' /\ flen m' = flen m /\
       forall i, place_of c i = Padding -> load m' i = load m i) /\
  (forall x y width height fg bg, bg < 256 ->
     exists m', vesa_fill c m x y width height fg bg = Ok m' /\ flen m' = flen m /\
       forall i, place_of c i = Padding -> load m' i = load m i) /\
  (forall dir lines, lines < two32 ->
     exists m', vesa_scroll c m dir lines = Ok m' /\ flen m' = flen m /\
       forall i, place_of c i = Padding \/ i / pitch c < offsetY c -> load m' i = load m i).
Proof. exact vesa_no_escape. Qed.
Print Assumptions C19_vesa_no_escape.

(** the three operations refine the cell-level semantics of Console/Grid.v, a cell's content being
    the colour bytes of its pixels ([vesa_grid], [cell_rel]): Write paints the glyph picture, Fill
    paints solid background cells in the clamped/clipped rectangle, Scroll moves the lines (the
    vacated lines hold some content: the caller repaints them). *)
Theorem C19_vesa_refines_grid :
  forall c f d m, vesa_wf c f d m ->
  (forall ch fg bg x y, ch < 256 -> fg < 256 -> bg < 256 -> x < two32 -> y < two32 ->
     exists m' fgb bgb, pixel_bytes c d fg = Some fgb /\ pixel_bytes c d bg = Some bgb /\
       vesa_write c m ch fg bg x y = Ok m' /\ vesa_wf c f d m' /\
       grid_equiv (cell_rel f d) (vesa_grid c f m') (g_write (vesa_grid c f m) x y (glyph_cell f ch fgb bgb))) /\
  (forall x y width height fg bg, bg < 256 ->
     exists m' bgb, pixel_bytes c d bg = Some bgb /\
       vesa_fill c m x y width height fg bg = Ok m' /\ vesa_wf c f d m' /\
       grid_equiv (cell_rel f d) (vesa_grid c f m') (g_fill (vesa_grid c f m) x y width height (solid_cell bgb))) /\
  (forall dir sd lines, lines < two32 -> dir_of dir = Some sd ->
     exists m', vesa_scroll c m dir lines = Ok m' /\ vesa_wf c f d m' /\
       grid_equiv (cell_rel f d) (vesa_grid c f m')
                  (g_scroll (vesa_grid c f m) sd lines (gcell (vesa_grid c f m')))).
Proof.
  intros c f d m W. split; [|split].
  - intros. now apply vesa_write_refines.
  - intros. now apply vesa_fill_refines.
  - intros. now apply vesa_scroll_refines.
Qed.
Print Assumptions C19_vesa_refines_grid.

(** ---- the pixel format ("packed for the framebuffer's pixel format") ----
    [pixel_bytes] for 24/32 bpp are the low three bytes of [packed24].  Full statement: for every
    colour-mask layout that fits the pixel, nothing of the packed colour lies outside those bytes. *)
Definition C19_full_vesa_pixel_format : Prop :=
  forall ci r g b, r < 256 -> g < 256 -> b < 256 ->
    rsize ci <= 8 -> gsize ci <= 8 -> bsize ci <= 8 ->
    rpos ci + rsize ci <= 32 -> gpos ci + gsize ci <= 32 -> bpos ci + bsize ci <= 32 ->
    packed24 ci (r, g, b) < 2 ^ 24.

(** proved for the layouts inside the three bytes (all 24-bit formats, 32-bit formats whose 4th
    byte is unused); there the packed value is (r >> (8-size)) << pos | ... without any loss *)
Theorem C19_vesa_pixel_format_partial :
  forall ci r g b, r < 256 -> g < 256 -> b < 256 ->
    rsize ci <= 8 -> gsize ci <= 8 -> bsize ci <= 8 ->
    rpos ci + rsize ci <= 24 -> gpos ci + gsize ci <= 24 -> bpos ci + bsize ci <= 24 ->
    packed24 ci (r, g, b) < 2 ^ 24 /\
    packed24 ci (r, g, b) =
      N.lor (N.lor (N.shiftl (comp8 r (rsize ci)) (rpos ci)) (N.shiftl (comp8 g (gsize ci)) (gpos ci)))
            (N.shiftl (comp8 b (bsize ci)) (bpos ci)).
Proof. exact packed24_fits. Qed.
Print Assumptions C19_vesa_pixel_format_partial.

(** 15/16 bpp: layouts inside the two bytes lose nothing either *)
Theorem C19_vesa_pixel_format16 :
  forall ci r g b, r < 256 -> g < 256 -> b < 256 ->
    rsize ci <= 8 -> gsize ci <= 8 -> bsize ci <= 8 ->
    rpos ci + rsize ci <= 16 -> gpos ci + gsize ci <= 16 -> bpos ci + bsize ci <= 16 ->
    packed16 ci (r, g, b) < 2 ^ 16 /\
    packed16 ci (r, g, b) =
      N.lor (N.lor (N.shiftl (comp8 r (rsize ci)) (rpos ci)) (N.shiftl (comp8 g (gsize ci)) (gpos ci)))
            (N.shiftl (comp8 b (bsize ci)) (bpos ci)).
Proof. exact packed16_fits. Qed.
Print Assumptions C19_vesa_pixel_format16.

(** the full statement is false of the unchanged code: a 32-bit format with a component in the 4th
    byte (known finding vesa:32bpp-high-byte-component-dropped) *)
Theorem C19_vesa_pixel_format_refuted :
  exists ci rgb, rsize ci <= 8 /\ rpos ci + rsize ci <= 32 /\ 2 ^ 24 <= packed24 ci rgb.
Proof. exists (mkColorInfo 24 8 16 8 8 8), (255, 0, 0). vm_compute. repeat split; discriminate. Qed.
Print Assumptions C19_vesa_pixel_format_refuted.
