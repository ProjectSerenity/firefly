(** C03 / C01 - tie of the bitmap frame allocator model to the source BY TRANSLATION.
    Gen/Trans_pmm_bitmap.v is regenerated on every run by gen/gotrans (extended mode: a slice of structs
    with indexed read-modify-write of element fields, a slice of uint64 words, three nested loops with
    continue and return, Go int, the mutex calls as events) from kernel/mm/pmm/bitmap_allocator.go:
    poolForFrame, markFrame, FreeFrame, AllocFrame.  The structs BitmapAllocator / framePool become
    records (the unsafe slice headers poolsHdr / freeBitmapHdr are left out; mutex.Acquire / Release are
    [GEv "Acquire" []] / [GEv "Release" []] on the trace, most recent first).
    The hand-written model Pmm/Bitmap.v ([pool_for_frame], [mark_reserved], [bitmap_free], [bitmap_alloc]),
    about which C01 (no double allocation) and C03 (statistics, contract) are proved, is shown equal to
    that translation for EVERY allocator state (no invariant is needed): new state, returned frame /
    error, run-time panics (index out of range), and the lock is taken once and released once on every
    path.  [B.to_ga mtx a tr] maps the model's state to the translation's record.
    Side conditions: the slices have an int length (< 2^63) and fuel exceeds the number of pools, the
    number of words of every pool's bitmap and 64 (the bits of a word).
    markFrame is stated here for flag = markReserved (Pmm/Bitmap.v has no markFree operation; FreeFrame inlines it);
    flag = markFree is in Props/C03_trans2.v.
    Statements only; proofs are in Pmm/BitmapTrans.v. *)
From Coq Require Import NArith String List.
From FF Require Import Lib.GoOps Gen.Consts_mm_pmm Gen.Trans_pmm_bitmap Pmm.Bitmap.
From FF Require Pmm.BitmapTrans.
Module B := FF.Pmm.BitmapTrans.
Import ListNotations.
Local Open Scope N_scope.

(** poolForFrame: the index of the first pool containing the frame, or -1 *)
Theorem C03_poolForFrame_is_translation :
  forall (mtx : bool) (a : balloc) (tr : list gevent) (f : N) (fuel : nat),
    (length (a_pools a) < fuel)%nat ->
    go_pmm_BitmapAllocator_poolForFrame fuel (B.to_ga mtx a tr) f =
    GOk (B.to_ga mtx a tr, match pool_for_frame a f with Some i => N.of_nat i | None => 2 ^ 64 - 1 end).
Proof. exact B.poolForFrame_is_translation. Qed.
Print Assumptions C03_poolForFrame_is_translation.

(** markFrame(poolIndex, frame, markReserved); poolIndex = -1 is the model's [None] *)
Theorem C03_markFrame_reserved_is_translation :
  forall (mtx : bool) (a : balloc) (tr : list gevent) (pi : option nat) (f : N),
    N.of_nat (length (a_pools a)) < 2 ^ 63 -> (forall i, pi = Some i -> N.of_nat i < 2 ^ 63) ->
    go_pmm_BitmapAllocator_markFrame (B.to_ga mtx a tr)
      (match pi with Some i => N.of_nat i | None => 2 ^ 64 - 1 end) f false =
    match mark_reserved a pi f with
    | Ok a' => GOk (B.to_ga mtx a' tr, tt)
    | Panic => GPanic
    | Hang => GFuel
    end.
Proof. exact B.markFrame_reserved_is_translation. Qed.
Print Assumptions C03_markFrame_reserved_is_translation.

Theorem C03_freeFrame_is_translation :
  forall (mtx : bool) (a : balloc) (tr : list gevent) (f : N) (fuel : nat),
    N.of_nat (length (a_pools a)) < 2 ^ 63 -> (length (a_pools a) < fuel)%nat ->
    go_pmm_BitmapAllocator_FreeFrame fuel (B.to_ga mtx a tr) f =
    match bitmap_free a f with
    | (_, FreePanic) => GPanic
    | (a', r) =>
        GOk (B.to_ga mtx a' (GEv "Release" [] :: GEv "Acquire" [] :: tr),
             match r with
             | FreeNotManaged => Some "errBitmapAllocFrameNotManaged"%string
             | FreeDoubleFree => Some "errBitmapAllocDoubleFree"%string
             | _ => None
             end)
    end.
Proof. exact B.freeFrame_is_translation_explicit. Qed.
Print Assumptions C03_freeFrame_is_translation.

Theorem C03_allocFrame_is_translation :
  forall (mtx : bool) (a : balloc) (tr : list gevent) (fuel : nat),
    N.of_nat (length (a_pools a)) < 2 ^ 63 ->
    (forall p, In p (a_pools a) -> N.of_nat (length (p_bitmap p)) < 2 ^ 63 /\ (length (p_bitmap p) < fuel)%nat) ->
    (length (a_pools a) < fuel)%nat -> (64 < fuel)%nat ->
    go_pmm_BitmapAllocator_AllocFrame fuel (B.to_ga mtx a tr) =
    match bitmap_alloc a with
    | (a', Some f) => GOk (B.to_ga mtx a' (GEv "Release" [] :: GEv "Acquire" [] :: tr), (f, None))
    | (a', None) =>
        GOk (B.to_ga mtx a' (GEv "Release" [] :: GEv "Acquire" [] :: tr),
             (mm_InvalidFrame, Some "errBitmapAllocOutOfMemory"%string))
    end.
Proof. exact B.allocFrame_is_translation_explicit. Qed.
Print Assumptions C03_allocFrame_is_translation.
