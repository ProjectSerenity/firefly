(** C09 — concurrent frame allocation and freeing never duplicates or loses a frame.
    Statements; the proofs are in Sync/*Proofs.v (the two path theorems run the checker, whose soundness is
    [C09_checker_sound], on the regenerated skeletons).  The sequential behaviour of AllocFrame/FreeFrame is the subject of C01/C03; this
    file carries the concurrency argument: (1) on every control-flow path of the operations, as
    regenerated from bitmap_allocator.go, every access to mutable allocator state lies between
    mutex.Acquire and mutex.Release and the mutex is released before returning; (2) tasks that obey
    this discipline under a mutual-exclusion lock (C08) are serializable: every interleaving yields the
    results, shared state and local states of the serial execution of the same calls in the order of
    their Acquires. *)
From Coq Require Import NArith List String Bool.
From FF Require Import Sync.Skel Sync.SkelProofs Gen.LockSkel Sync.SkelRun Sync.SkelGenProofs Sync.Serial Sync.SerialProofs.
From FF Require Import Lib.Word Pmm.Boot Pmm.BootProofs Pmm.Bitmap Pmm.BitmapProofs Pmm.HistoryProofs Pmm.InitProofs Pmm.TopProofs Sync.AllocTasks Sync.AllocTasksProofs.
Import ListNotations.

(** the checker accepts the skeletons regenerated from the current source, they do touch shared
    state, and the translator understood every statement *)
Theorem C09_skeletons_ok : skeletons_ok = true.
Proof. exact skeletons_ok_true. Qed.
Print Assumptions C09_skeletons_ok.

(** every path of AllocFrame: no shared access outside the mutex, no double acquire, no stray release,
    mutex released when the call returns *)
Theorem C09_alloc_paths_disciplined :
  forall t o, exec skel_AllocFrame t o -> lkrun false t = Some false /\ (o = ONormal \/ o = OReturn).
Proof. intros t o. apply well_bracketed_sound. vm_compute. reflexivity. Qed.
Print Assumptions C09_alloc_paths_disciplined.

Theorem C09_free_paths_disciplined :
  forall t o, exec skel_FreeFrame t o -> lkrun false t = Some false /\ (o = ONormal \/ o = OReturn).
Proof. intros t o. apply well_bracketed_sound. vm_compute. reflexivity. Qed.
Print Assumptions C09_free_paths_disciplined.

(** the checker is sound for every skeleton, not only today's *)
Theorem C09_checker_sound :
  forall s t o, well_bracketed s = true -> exec s t o ->
    lkrun false t = Some false /\ (o = ONormal \/ o = OReturn).
Proof. exact well_bracketed_sound. Qed.
Print Assumptions C09_checker_sound.

(** Serializability, for any shared state [S], local state [L], result type [R], any disciplined code,
    any number of tasks and any interleaving. *)
Theorem C09_serializable :
  forall (S L R : Type) (code : L -> @action S L R) (holds : L -> bool),
    disciplined code holds ->
    forall g0 g : @st S L R, initial holds g0 -> star (cstep code) g0 g ->
      lockinv holds g /\ exists g', star (sstep code holds) g0 g' /\ sim code g g'.
Proof. exact @serializable. Qed.
Print Assumptions C09_serializable.

(** ... in particular once every caller has stopped: same results in the same order, same allocator
    state (free/reserved totals, bitmaps) as the serial execution *)
Theorem C09_serializable_quiescent :
  forall (S L R : Type) (code : L -> @action S L R) (holds : L -> bool),
    disciplined code holds ->
    forall g0 g : @st S L R, initial holds g0 -> star (cstep code) g0 g -> owner g = None ->
      exists g', star (sstep code holds) g0 g' /\ hist g = hist g' /\ sh g = sh g' /\ same_loc (loc g) (loc g').
Proof. exact @serializable_quiescent. Qed.
Print Assumptions C09_serializable_quiescent.

Theorem C09_one_inside :
  forall (S L R : Type) (code : L -> @action S L R) (holds : L -> bool),
    disciplined code holds ->
    forall (g0 g : @st S L R) t u, initial holds g0 -> star (cstep code) g0 g ->
      holds (loc g t) = true -> holds (loc g u) = true -> t = u.
Proof. exact @one_inside. Qed.
Print Assumptions C09_one_inside.

(** ---- the theorem instantiated with the allocator's sequential model (C01/C03) ----
    [AllocTasks.code]: a caller's call = Acquire; the operation on the allocator state; Release; return.
    [start a0 plan]: allocator [a0], mutex free, task t about to perform the calls [plan t]. *)
Theorem C09_calls_disciplined : disciplined AllocTasks.code AllocTasks.holds.
Proof. exact alloc_disciplined. Qed.
Print Assumptions C09_calls_disciplined.

(** Any number of callers, any plans, any interleaving: whenever nobody is inside the allocator its state
    is the state after SOME sequential history of planned calls and every result handed to a caller is a
    result of that history. *)
Theorem C09_concurrent_alloc_is_serial :
  forall (a0 : balloc) (plan : nat -> list op) g,
    star (cstep AllocTasks.code) (start a0 plan) g -> owner g = None ->
    exists ops, sh g = final a0 ops /\ Forall (planned plan) ops /\
                Forall (fun e => In (snd e) (results a0 ops)) (hist g).
Proof. exact concurrent_alloc_is_serial. Qed.
Print Assumptions C09_concurrent_alloc_is_serial.

(** Composition with C01/C03: after a successful pmm.Init, for any number of concurrent callers, any plans
    (frees of frames reserved at initialisation excluded, as in C01/C03) and any interleaving, at quiescence
    there is a sequential history [ops] of the planned calls with: allocator state = state after [ops];
    along [ops] every frame handed out is usable and held by nobody else - no frame is ever held by two
    callers, a freed frame becomes allocatable again; free/reserved totals = usable minus held at every
    step; every result a caller got is a result of [ops]. *)
Theorem C09_concurrent_frames_exclusive :
  forall (m : memmap) (kstart kend limit mapfail : N) (a0 : balloc) (b0 : bstate) (obs : init_obs) (plan : nat -> list op) g,
    WFmap m -> WFkernel m kstart kend -> small_map m ->
    pmm_init m kstart kend limit mapfail = (InitOk a0 b0, obs) ->
    (forall t, history_ok m kstart kend (early_frames obs) (plan t)) ->
    star (cstep AllocTasks.code) (start a0 plan) g -> owner g = None ->
    exists ops,
      sh g = final a0 ops /\ Forall (planned plan) ops /\
      exclusive (usable m kstart kend (early_frames obs)) [] (combine ops (map fst (run a0 ops))) /\
      stats_ok (total_frames m) (usable_count m kstart kend (early_frames obs)) 0 (run a0 ops) /\
      Forall (fun e => In (snd e) (map fst (run a0 ops))) (hist g).
Proof. exact concurrent_frames_exclusive. Qed.
Print Assumptions C09_concurrent_frames_exclusive.
