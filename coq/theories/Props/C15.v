(** C15 — kernel printf output is exact, bounded, never panics (allocation-freedom is measured by the
    harness, see checks/C15.py).  Statements; each proof is a lemma of Kfmt/FmtProofs.v, Kfmt/FmtScanProofs.v or a short
    derivation from them.
    Model: Kfmt/Fmt.v (Fprintf's scanner over format indices, fmtInt over the bounds-checked
    numFmtBuf, fmtString, fmtBool, fmtRepeat).  Specification: Kfmt/FmtSpec.v ([render]). *)
From Coq Require Import NArith ZArith List.
From FF Require Import Lib.Word Gen.Consts_kfmt Kfmt.Fmt Kfmt.FmtSpec Kfmt.FmtProofs Kfmt.FmtScanProofs.
Import ListNotations.
Local Open Scope Z_scope.

(** For every well-formed format — a list of literal texts (any bytes but '%'), "%%" and
    "%<decimal digits><d|x|o|s|t>" with any width below 2^62 (the property asks for 0..10^6), written
    with or without leading zeros — and every argument list (too short, too long, mistyped; integers
    anywhere in the range of their type, strings and byte slices of any length Go can represent), and
    whatever numFmtBuf contained before the call: Fprintf returns normally and the bytes its writer
    received are exactly [render]: literal text unchanged, %% as one '%', integers in base 8/10/16
    with the digits of |v|, left-padded to min(width,31) (spaces and sign-in-the-last-space for
    decimal, zeros and a leading sign for octal/hex), strings/byte slices left-padded with spaces to
    the width, true/false, and the fixed markers for missing, wrongly-typed and surplus arguments. *)
Theorem C15_fprintf_exact :
  forall (ps : list piece) (args : list arg) (buf : list N),
    Forall piece_wf ps -> Forall arg_ok args -> length buf = N.to_nat kfmt_numFmtBufLen ->
    written (fprintf (encode ps) args buf) = Ok (render ps args).
Proof. exact fprintf_exact_written. Qed.
Print Assumptions C15_fprintf_exact.

(** The digit string fmtInt produces has the value |v| for every value of every built-in integer
    type (including the minimum of each signed type), in each base, uses only digits of that base,
    is not empty, and is preceded by '-' exactly for negative values. [render] is thereby tied to an
    independent reading of the digits ([value]), not only to its own digit generator. *)
Theorem C15_fmtint_digits :
  forall (buf : list N) (k : ikind) (x : Z) (base : Z),
    length buf = N.to_nat kfmt_numFmtBufLen -> in_range k x -> base = 8 \/ base = 10 \/ base = 16 ->
    exists s buf', fmt_int buf (AInt k x) base 0 = Ok ([s], buf') /\
      let ds := if x <? 0 then tl s else s in
      (x < 0 -> hd 0%N s = 45%N) /\ ds <> [] /\
      Forall (digit_ok (Z.to_N base)) ds /\ value (Z.to_N base) ds = Z.abs_N x.
Proof. exact fmtint_digits. Qed.
Print Assumptions C15_fmtint_digits.

(** The specification's digit generator read back with [value] gives the number (bases 2..16). *)
Theorem C15_digits_value :
  forall base n, (2 <= base)%N -> (base <= 16)%N -> value base (digits base n) = n.
Proof. exact value_digits. Qed.
Print Assumptions C15_digits_value.

(** For EVERY byte string used as format (unknown verb characters, a trailing '%', digit runs that
    wrap the 64-bit int, ...) and EVERY argument list (no range or type restriction at all), Fprintf
    returns normally: no index of the format string, of the argument slice or of the 33-byte
    numFmtBuf is ever out of range, no division by zero, and the fuel of the model's loops suffices. *)
Theorem C15_fprintf_never_panics :
  forall (fmt : list N) (args : list arg) (buf : list N),
    length buf = N.to_nat kfmt_numFmtBufLen -> exists r, fprintf fmt args buf = Ok r.
Proof. exact fprintf_never_panics. Qed.
Print Assumptions C15_fprintf_never_panics.

(** fmtInt on its own, for any value whatsoever of an integer argument and any requested padding
    (negative, or far beyond the buffer): it returns normally with exactly one Write, leaves the
    buffer length unchanged, and the output is the specification's rendering. *)
Theorem C15_fmtint_exact :
  forall (buf : list N) (k : ikind) (x : Z) (base pad : Z),
    length buf = N.to_nat kfmt_numFmtBufLen -> base = 8 \/ base = 10 \/ base = 16 -> in_range k x ->
    exists buf', length buf' = length buf /\
      fmt_int buf (AInt k x) base pad = Ok ([render_int (Z.to_N base) (Z.to_N pad) (x <? 0) (Z.abs_N x)], buf').
Proof.
  intros buf k x base pad Hl Hb Hr. destruct (fmt_int_exact buf k x base pad Hl Hb) as [buf' [Hl' E]].
  destruct (model_in_range k x Hr) as [E1 E2]. rewrite E1, E2 in E.
  exists buf'. split; [rewrite Hl', Hl; reflexivity | exact E].
Qed.
Print Assumptions C15_fmtint_exact.
