(** C04 - tie of PageDirectoryTable.{Init,Map,Unmap,Activate} (kernel/mm/vmm/pdt.go) to the source BY TRANSLATION.

    Gen/Trans_vmm_pdt.v is regenerated on every run by gen/gotrans in its "memory as state" mode
    (gen/gotrans/ext_mem.go, config gen/gotrans/vmm_pdt.json).  The translated functions thread a record
    [go_vmm_world] = (trace of the calls made through the function-variable seams, most recent first; the model's
    machine state [Pt.st] as the memory).  In the translation
      - a [*pageTableEntry] is an address; [*p = e] is a store, [p.SetFlags(f)] / [p.SetFrame(f)] are load; apply the
        (separately translated, pure) helper; store - through Vmm/PtAccess.v: in Init the accesses are VIRTUAL, each
        resolved by the model of the 4-level MMU from cr3 in the state at the time of that access; in Map / Unmap
        they are PHYSICAL accesses at activePdtFrame.Address() + 511*8 (the kernel's identity window) - this class is a
        per-function attribute of the config, as it is a modelling decision of Vmm/Pt.v;
      - every call through activePDTFn, switchPDTFn, flushTLBEntryFn, mapFn, unmapFn, mapTemporaryFn and kernel.Memset
        is recorded as [GCall name [GNum arg ..]] and its effect on the state and its results come from a stateful
        oracle.  The oracles [T.o_*] are the model's environment: activePDTFn returns cr3, flushTLBEntryFn /
        switchPDTFn log (and set cr3), mapFn / unmapFn / mapTemporaryFn are the model's [map_page] / [unmap_page] /
        [map_temporary] (a [Stray] of the model is [None], which the translation turns into [GPanic]), and
        kernel.Memset(a, 0, PageSize) is the model's step "zero the frame the page at [a] resolves to"
        (kernel.Memset itself is C06_memset_fills_exactly).
    The theorems: for the receiver value [pdts s slot] the translated function returns exactly the model's result -
    new machine state, error (model code [e] as [T.err_of e]: nil iff 0), the receiver written by Init - and makes
    exactly the listed seam calls in order; a stray access of the model is a panic of the translation.

    Hypotheses.  Map / Unmap: every memory word is a 64-bit word ([T.mem_w64]; the model's [set_frame] does not
    truncate the entry it reads), cr3 and the arguments are 64-bit values ([cr3 s], [pdts s slot], [flags] < 2^64).
    Activate: the receiver's frame [pdts s slot] < 2^64.  Init: the frame argument < 2^64, and: the model resolves the temporary
    page ONCE (before kernel.Memset) and then writes the recursive entry in one step, whereas the Go code - and the
    translation - dereferences the pointer again after Memset and after each of its three stores
    (the stores "*p = 0", SetFlags, SetFrame).  The two agree when the frame that the temporary page is mapped to is not itself
    one of the four tables that translate the temporary page ([T.init_stable]); if it is, Init zeroes a live page
    table and the next dereference cannot be resolved (hardware: a fault; the translation: GPanic) while the
    hand-written model and the test harness (which hands out a host pointer once) carry on.  That input is outside
    C04's theorems too (Init only on a frame no tree uses).
    [C04_pdt_init_is_translation_inv] discharges [T.init_stable] IN GENERAL under the hypotheses of C04_pdt_init (the
    invariant [Inv] of the active space, a backed frame that no tree uses and the allocator will not hand out, not the
    guarded zero frame): no per-state check.  The examples keep the differing case (Init of a live page table).
    Statements only; proofs are in Vmm/PdtTrans.v and Vmm/StableInv.v. *)
From Coq Require Import NArith String List Bool.
From FF Require Import Lib.Word Lib.GoOps Gen.Consts_mm_vmm Gen.Trans_vmm_pdt Vmm.Pt.
From FF Require Vmm.PdtTrans Vmm.StableInv.
From FF Require Import Vmm.PtMap.
Module T := FF.Vmm.PdtTrans.
Import ListNotations.
Local Open Scope N_scope.

Theorem C04_pdt_map_is_translation :
  forall (slot page frame flags : N) (s : st) (tr0 : list gcall),
    T.mem_w64 s -> cr3 s < two64 -> pdts s slot < two64 -> flags < two64 ->
    let af := N.shiftr (cr3 s) mm_PageShift in
    let lea := add64 (frame_addr af) last_entry_off in
    go_vmm_PageDirectoryTable_Map (mk_go_vmm_world tr0 s) (pdts s slot) page frame flags
      T.o_active T.o_flush T.o_map =
    match pdt_map slot page frame flags s with
    | Stray => GPanic
    | Ok (s', e) =>
        GOk (mk_go_vmm_world
               ((if af =? pdts s slot then [T.ev_map page frame flags]
                 else [T.ev_flush lea; T.ev_map page frame flags; T.ev_flush lea]) ++ T.ev_active :: tr0) s',
             T.err_of e)
    end.
Proof. exact T.pdt_map_is_translation. Qed.
Print Assumptions C04_pdt_map_is_translation.

Theorem C04_pdt_unmap_is_translation :
  forall (slot page : N) (s : st) (tr0 : list gcall),
    T.mem_w64 s -> cr3 s < two64 -> pdts s slot < two64 ->
    let af := N.shiftr (cr3 s) mm_PageShift in
    let lea := add64 (frame_addr af) last_entry_off in
    go_vmm_PageDirectoryTable_Unmap (mk_go_vmm_world tr0 s) (pdts s slot) page T.o_active T.o_flush T.o_unmap =
    match pdt_unmap slot page s with
    | Stray => GPanic
    | Ok (s', e) =>
        GOk (mk_go_vmm_world
               ((if af =? pdts s slot then [T.ev_unmap page]
                 else [T.ev_flush lea; T.ev_unmap page; T.ev_flush lea]) ++ T.ev_active :: tr0) s',
             T.err_of e)
    end.
Proof. exact T.pdt_unmap_is_translation. Qed.
Print Assumptions C04_pdt_unmap_is_translation.

Theorem C04_pdt_init_is_translation :
  forall (slot frame : N) (s : st) (tr0 : list gcall) (pdt0 : N),
    frame < two64 ->
    T.init_stable frame (set_pdt s slot frame) ->
    go_vmm_PageDirectoryTable_Init (mk_go_vmm_world tr0 (set_pdt s slot frame)) pdt0 frame
      T.o_active T.o_memset T.o_maptemp T.o_unmap =
    match pdt_init slot frame s with
    | Stray => GPanic
    | Ok (s', e) =>
        GOk (mk_go_vmm_world
               ((if frame_addr frame =? cr3 s then [T.ev_active]
                 else if e =? 0
                      then [T.ev_unmap temp_page; T.ev_memset (frame_addr temp_page); T.ev_maptemp frame; T.ev_active]
                      else [T.ev_maptemp frame; T.ev_active]) ++ tr0) s',
             (T.err_of e, frame))
    end.
Proof. exact T.pdt_init_is_translation. Qed.
Print Assumptions C04_pdt_init_is_translation.

Theorem C04_pdt_activate_is_translation :
  forall (slot : N) (s : st) (tr0 : list gcall),
    pdts s slot < two64 ->
    go_vmm_PageDirectoryTable_Activate (mk_go_vmm_world tr0 s) (pdts s slot) T.o_switch =
    GOk (mk_go_vmm_world (T.ev_switch (frame_addr (pdts s slot)) :: tr0) (pdt_activate slot s), tt).
Proof. exact T.pdt_activate_is_translation. Qed.
Print Assumptions C04_pdt_activate_is_translation.

(** the operations reached through the seams keep the side condition of the Map / Unmap theorems *)
Theorem C04_pdt_trans_keeps_w64 :
  forall (s s' : st) (e : N),
    T.mem_w64 s ->
    (forall p f fl, fl < two64 -> map_page p f fl s = Ok (s', e) -> T.mem_w64 s') /\
    (forall p, unmap_page p s = Ok (s', e) -> T.mem_w64 s').
Proof. exact T.trans_keeps_w64. Qed.
Print Assumptions C04_pdt_trans_keeps_w64.

(** Init on the whole domain of C04_pdt_init *)
Theorem C04_pdt_init_is_translation_inv :
  forall (s : st) (A : N) (own : PtTree.ownmap) (slot F : N) (tr0 : list gcall) (pdt0 : N),
    Inv s A A own -> (prot s && (F =? zf s)) = false -> backed s F = true -> own F = None -> ~ In F (orc s) ->
    go_vmm_PageDirectoryTable_Init (mk_go_vmm_world tr0 (set_pdt s slot F)) pdt0 F
      T.o_active T.o_memset T.o_maptemp T.o_unmap =
    match pdt_init slot F s with
    | Stray => GPanic
    | Ok (s', e) =>
        GOk (mk_go_vmm_world
               ((if frame_addr F =? cr3 s then [T.ev_active]
                 else if e =? 0
                      then [T.ev_unmap temp_page; T.ev_memset (frame_addr temp_page); T.ev_maptemp F; T.ev_active]
                      else [T.ev_maptemp F; T.ev_active]) ++ tr0) s',
             (T.err_of e, F))
    end.
Proof. exact StableInv.pdt_init_is_translation_inv. Qed.
Print Assumptions C04_pdt_init_is_translation_inv.
