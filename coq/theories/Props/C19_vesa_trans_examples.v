(** Non-vacuity and concrete runs for Props/C19_vesa_trans.v: a 20x5 pixel, 16-bit (5/6/5), padded (pitch 43)
    framebuffer console with a synthetic 8x2 font - a 2x2 character grid - built as NewVesaFbConsole + SetFont build it. *)
From Coq Require Import NArith ZArith PArith String List Lia.
From Coq Require Import ZifyBool ZifyN ZifyNat.
From FF Require Import Lib.Word Lib.GoOps Gen.Consts_device_tty Gen.Consts_device_video_console Gen.Trans_console_vesa.
From FF Require Import Console.Mem Console.Loop Console.Vesa Console.VesaProofs Console.VesaTrans Props.C19_vesa_trans.
Import ListNotations.
Local Open Scope N_scope.

Definition pal3 (i : N) : N * N * N := (i, 255 - i, i / 2).
Definition fnt8x2 : font := mkFont 8 2 1 512 (fun i => i mod 256).
Definition sc : vesa := mkVesa 16 2 (mkColorInfo 11 5 5 6 0 5) 20 5 0 43 (Some fnt8x2) 2 2 256 pal3.
Definition sm : fbuf := fresh 215 (fun _ => 7).
Definition fb_of (r : gres (go_console_VesaFbConsole * unit)) : list N :=
  match r with GOk (g, _) => f_VesaFbConsole_fb g | _ => [] end.

(** the hypotheses of the theorems hold for this console *)
Example C19_vesa_trans_wf_nonvacuous :
  set_font (new_vesa 20 5 16 43 (mkColorInfo 11 5 5 6 0 5) 256 pal3) fnt8x2 = Some sc /\
  vesa_wf sc fnt8x2 D16 sm /\ bytes_ok sc /\ (Pos.to_nat fuel32 <= Pos.to_nat fuel32)%nat.
Proof.
  split; [reflexivity|]. split; [constructor; cbn; try reflexivity; unfold two32; try lia|]. split; [|apply le_n].
  split; [|cbn; lia]. intros i Hi. change (pal_len sc) with 256 in Hi. change (pal sc i) with (i, 255 - i, i / 2). repeat split; try lia.
Qed.

(** the record and the extra parameters of the translation for this console *)
Example C19_vesa_trans_record :
  f_VesaFbConsole_bpp (to_gs sc 0xe0000000 sm) = 16 /\ f_VesaFbConsole_bytesPerPixel (to_gs sc 0xe0000000 sm) = 2 /\
  f_VesaFbConsole_fbPhysAddr (to_gs sc 0xe0000000 sm) = 0xe0000000 /\
  length (f_VesaFbConsole_fb (to_gs sc 0 sm)) = 215%nat /\ length (f_VesaFbConsole_palette (to_gs sc 0 sm)) = 256%nat /\
  nth_error (f_VesaFbConsole_palette (to_gs sc 0 sm)) 3 = Some (mk_go_color_RGBA 3 252 1 255) /\
  f_VesaFbConsole_font (to_gs sc 0 sm) = true /\
  (fgw sc, fgh sc, fbpr sc, length (fdata sc)) = (8, 2, 1, 512%nat) /\ nth_error (fdata sc) 130 = Some 130.
Proof. vm_compute. repeat split. Qed.

(** colour 3 = (3, 252, 1) packed 5/6/5 = 0x07e0, low byte first; index 256 is outside the palette *)
Example C19_vesa_trans_run_packColor :
  go_console_VesaFbConsole_packColor16 (to_gs sc 0 sm) 3 5 0 6 5 5 11 = GOk (to_gs sc 0 sm, [0xe0; 0x07]) /\
  pack_color16 sc 3 = [0xe0; 0x07] /\
  go_console_VesaFbConsole_packColor16 (to_gs sc 0 sm) 256 5 0 6 5 5 11 = GPanic.
Proof. split; [|split]; vm_compute; reflexivity. Qed.

(** Write('A' = glyph rows 0x82, 0x83; fg 3 = e0 07, bg 200 = ac c9) at column 2, line 1: pixel columns 8..15 of
    rows 0 and 1; the result is the model's *)
Example C19_vesa_trans_run_write :
  firstn 86 (fb_of (go_console_VesaFbConsole_Write 40 (to_gs sc 0 sm) 0x41 3 200 2 1 5 0 6 5 5 11 (fbpr sc) (fdata sc) (fgh sc) (fgw sc))) =
    [7; 7; 7; 7; 7; 7; 7; 7; 7; 7; 7; 7; 7; 7; 7; 7;
     224; 7; 172; 201; 172; 201; 172; 201; 172; 201; 172; 201; 224; 7; 172; 201; 7; 7; 7; 7; 7; 7; 7; 7; 7; 7; 7;
     7; 7; 7; 7; 7; 7; 7; 7; 7; 7; 7; 7; 7; 7; 7; 7;
     224; 7; 172; 201; 172; 201; 172; 201; 172; 201; 172; 201; 224; 7; 224; 7; 7; 7; 7; 7; 7; 7; 7; 7; 7; 7; 7] /\
  (match vesa_write sc sm 0x41 3 200 2 1 with
   | Ok m' => go_console_VesaFbConsole_Write 40 (to_gs sc 0 sm) 0x41 3 200 2 1 5 0 6 5 5 11 (fbpr sc) (fdata sc) (fgh sc) (fgw sc)
                = GOk (to_gs sc 0 m', tt)
   | _ => False
   end) /\
  go_console_VesaFbConsole_Write 40 (to_gs sc 0 sm) 0x41 3 200 3 1 5 0 6 5 5 11 (fbpr sc) (fdata sc) (fgh sc) (fgw sc) = GOk (to_gs sc 0 sm, tt) /\
  go_console_VesaFbConsole_Write 5 (to_gs sc 0 sm) 0x41 3 200 2 1 5 0 6 5 5 11 (fbpr sc) (fdata sc) (fgh sc) (fgw sc) = GFuel.
Proof. split; [|split; [|split]]; vm_compute; reflexivity. Qed.

(** Fill(2, 1, 2^32-1, 2^32-1, bg 3): clipped to column 2, lines 1..2 = pixel columns 8..15 of rows 0..3 *)
Example C19_vesa_trans_run_fill :
  firstn 86 (fb_of (go_console_VesaFbConsole_Fill 100 (to_gs sc 0 sm) 2 1 0xffffffff 0xffffffff 0 3 5 0 6 5 5 11 (fgh sc) (fgw sc))) =
    [7; 7; 7; 7; 7; 7; 7; 7; 7; 7; 7; 7; 7; 7; 7; 7;
     224; 7; 224; 7; 224; 7; 224; 7; 224; 7; 224; 7; 224; 7; 224; 7; 7; 7; 7; 7; 7; 7; 7; 7; 7; 7; 7;
     7; 7; 7; 7; 7; 7; 7; 7; 7; 7; 7; 7; 7; 7; 7; 7;
     224; 7; 224; 7; 224; 7; 224; 7; 224; 7; 224; 7; 224; 7; 224; 7; 7; 7; 7; 7; 7; 7; 7; 7; 7; 7; 7] /\
  (match vesa_fill sc sm 2 1 0xffffffff 0xffffffff 0 3 with
   | Ok m' => go_console_VesaFbConsole_Fill 100 (to_gs sc 0 sm) 2 1 0xffffffff 0xffffffff 0 3 5 0 6 5 5 11 (fgh sc) (fgw sc)
                = GOk (to_gs sc 0 m', tt)
   | _ => False
   end).
Proof. split; vm_compute; reflexivity. Qed.

(** Scroll up by one line (= 2 pixel rows): rows 2, 3 move to rows 0, 1 (40 row bytes each; the 3 padding bytes stay) *)
Example C19_vesa_trans_run_scroll :
  firstn 46 (fb_of (go_console_VesaFbConsole_Scroll 100 (to_gs sc 0 (fresh 215 (fun i => i))) console_ScrollDirUp 1 (fgh sc))) =
    [86; 87; 88; 89; 90; 91; 92; 93; 94; 95; 96; 97; 98; 99; 100; 101; 102; 103; 104; 105; 106; 107; 108; 109; 110; 111; 112;
     113; 114; 115; 116; 117; 118; 119; 120; 121; 122; 123; 124; 125; 40; 41; 42; 129; 130; 131] /\
  (match vesa_scroll sc (fresh 215 (fun i => i)) console_ScrollDirUp 1 with
   | Ok m' => go_console_VesaFbConsole_Scroll 100 (to_gs sc 0 (fresh 215 (fun i => i))) console_ScrollDirUp 1 (fgh sc) = GOk (to_gs sc 0 m', tt)
   | _ => False
   end) /\
  go_console_VesaFbConsole_Scroll 40 (to_gs sc 0 (fresh 215 (fun i => i))) console_ScrollDirUp 1 (fgh sc) = GFuel.
Proof. split; [|split]; vm_compute; reflexivity. Qed.

(** a framebuffer shorter than height*pitch (not a state DriverInit produces) and a colour index outside the
    palette: GPanic, as the model's Panic *)
Example C19_vesa_trans_run_panic :
  go_console_VesaFbConsole_Write 40 (to_gs sc 0 (fresh 100 (fun _ => 7))) 0x41 3 200 2 2 5 0 6 5 5 11 (fbpr sc) (fdata sc) (fgh sc) (fgw sc) = GPanic /\
  (match vesa_write sc (fresh 100 (fun _ => 7)) 0x41 3 200 2 2 with Panic _ => True | _ => False end) /\
  go_console_VesaFbConsole_Write 40 (to_gs sc 0 sm) 0x41 3 256 2 2 5 0 6 5 5 11 (fbpr sc) (fdata sc) (fgh sc) (fgw sc) = GPanic /\
  (match vesa_write sc sm 0x41 3 256 2 2 with Panic _ => True | _ => False end).
Proof. split; [|split; [|split]]; vm_compute; first [reflexivity|exact I]. Qed.
