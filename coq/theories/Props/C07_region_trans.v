(** C07 - tie of MapRegion / IdentityMapRegion to the source BY TRANSLATION ([C07_model_is_translation] in Props/C07.v
    covers EarlyReserveRegion and the page/frame helpers).
    Gen/Trans_mm_vmm2.v is regenerated on every run by gen/gotrans (extended mode) from kernel/mm/vmm/map.go.
    The two functions have no receiver: the translation threads a record [world] holding only the trace of the
    calls made through the package-level function variables [earlyReserveRegionFn] and [mapFn] - the seams the
    Go tests mock - as [GCall name [GNum arg; ..]], most recent first; what a call returns is given by an oracle
    on that trace.  The hand-written model Vmm/Region.v ([map_region], [identity_map_region]) fixes the
    environment: reservation by [early_reserve] from a cursor [last], and a mapFn that fails at call number
    [fail] (if any).  [R.o_reserve last] and [R.o_map fail base] are the oracles of exactly that environment
    ([base] = the length of the trace when the page loop starts).  The theorems: for all 64-bit arguments and
    fuel above the page count, the translation makes exactly the model's calls in the model's order
    (the reservation first, unless the size round-up wrapped), and returns the model's page - or 0 with
    errEarlyReserveNoSpace (round-up wrapped / nothing reserved) or the mapFn error.
    Statements only; proofs are in Vmm/RegionTrans2.v. *)
From Coq Require Import NArith String List.
From FF Require Import Lib.Word Lib.GoOps Gen.Consts_mm_vmm Gen.Trans_mm_vmm2 Vmm.Region.
From FF Require Vmm.RegionTrans2.
Module R := FF.Vmm.RegionTrans2.
Import ListNotations.
Local Open Scope N_scope.

Theorem C07_map_region_is_translation :
  forall (last frame size flags : N) (fail : option N) (tr0 : list gcall) (fuel : nat),
    last < two64 -> frame < two64 -> size < two64 -> flags < two64 ->
    (N.to_nat (N.shiftr (round_up size) PageShift) < fuel)%nat ->
    go_vmm_MapRegion fuel (mk_go_vmm_world tr0) frame size flags
      (R.o_reserve last) (R.o_map fail (S (length tr0))) =
    let '(_, calls, res) := map_region last frame size flags fail in
    let sz := round_up size in
    GOk (mk_go_vmm_world
           (rev (map R.ev_map calls) ++ (if sz <? size then [] else [R.ev_reserve sz]) ++ tr0),
         match res with
         | Some p => (p, None)
         | None => (0, if sz <? size then Some "errEarlyReserveNoSpace"%string
                       else match snd (early_reserve last sz) with
                            | None => Some "errEarlyReserveNoSpace"%string
                            | Some _ => Some "errMap"%string
                            end)
         end).
Proof. exact R.map_region_is_translation. Qed.
Print Assumptions C07_map_region_is_translation.

Theorem C07_identity_map_region_is_translation :
  forall (frame size flags : N) (fail : option N) (tr0 : list gcall) (fuel : nat),
    frame < two64 -> size < two64 -> flags < two64 ->
    (N.to_nat (N.shiftr (round_up size) PageShift) < fuel)%nat ->
    go_vmm_IdentityMapRegion fuel (mk_go_vmm_world tr0) frame size flags (R.o_map fail (length tr0)) =
    let '(calls, res) := identity_map_region frame size flags fail in
    GOk (mk_go_vmm_world (rev (map R.ev_map calls) ++ tr0),
         match res with
         | Some p => (p, None)
         | None => (0, if round_up size <? size then Some "errEarlyReserveNoSpace"%string else Some "errMap"%string)
         end).
Proof. exact R.identity_map_region_is_translation. Qed.
Print Assumptions C07_identity_map_region_is_translation.
