(** Non-vacuity of the C19 theorems: concrete consoles satisfying the hypotheses (among them the
    configurations the kernel boots with: 80x25 text mode; 1024x768x32 with the shipped 8x16
    font, a 64-row logo and padded rows), the shipped fonts, and concrete runs. *)
From Coq Require Import NArith List Bool Lia.
From FF Require Import Lib.Word Gen.Consts_device_video_console.
From FF Require Import Console.Mem Console.Ops Console.Grid Console.Vga Console.VgaProofs.
From FF Require Import Console.Vesa Console.VesaSpec Console.VesaProofs Console.C19Lemmas.
Import ListNotations.
Local Open Scope N_scope.

Example C19_vga_wf_nonvacuous : vga_wf (mkVga 80 25) (fresh 2000 (fun i => i)).
Proof. unfold vga_wf. cbn. unfold two32. lia. Qed.

Example C19_vga_wf_one_cell_nonvacuous : vga_wf (mkVga 1 1) (fresh 1 (fun i => i)).
Proof. unfold vga_wf. cbn. unfold two32. lia. Qed.

(** Fill(1,2,1,0xffffffff) on a 2x3 console: rows 2..3 of column 1 *)
Example C19_vga_fill_wrap_example :
  match vga_fill (mkVga 2 3) (fresh 6 (fun i => i)) 1 2 1 0xffffffff 7 0 with
  | Ok m' => dump m' = [0; 1; 0x0720; 3; 0x0720; 5]
  | _ => False
  end.
Proof. vm_compute. reflexivity. Qed.

Example C19_vga_fill_width_wrap_example :
  match vga_fill (mkVga 3 2) (fresh 6 (fun i => i)) 2 1 0xffffffff 1 1 15 with
  | Ok m' => dump m' = [0; 0xf120; 0xf120; 3; 4; 5]
  | _ => False
  end.
Proof. vm_compute. reflexivity. Qed.

Example C19_vga_write_white_background_example :
  match vga_write (mkVga 4 2) (fresh 8 (fun i => 0)) 0x41 1 15 2 1 with
  | Ok m' => dump m' = [0; 0xf141; 0; 0; 0; 0; 0; 0]
  | _ => False
  end.
Proof. vm_compute. reflexivity. Qed.

(** every shipped font is inside the quantifier of the theorems: 8..16 pixels wide, BytesPerRow =
    ceil(width/8), 256 glyphs of data *)
Definition font_in_range (e : N * N * N * list N) : bool :=
  let '(gw, gh, bpr, data) := e in
  (8 <=? gw) && (gw <=? 16) && (1 <=? gh) && (bpr =? (gw + 7) / 8) && (256 * bpr * gh <=? N.of_nat (length data)).

Example C19_shipped_fonts_in_range : forallb font_in_range console_font_table = true.
Proof. vm_compute. reflexivity. Qed.

(** the space glyph of every shipped font is blank (so Fill = writing spaces; used by C18) *)
Example C19_shipped_space_glyph_blank :
  forallb (fun e : N * N * N * list N =>
             let '(gw, gh, bpr, data) := e in
             forallb (fun b => b =? 0) (firstn (N.to_nat (bpr * gh)) (skipn (N.to_nat (0x20 * bpr * gh)) data)))
          console_font_table = true.
Proof. vm_compute. reflexivity. Qed.

(** 1024x768x32, rows padded by 64 bytes, 64-row logo, shipped 8x16 font, built the way the driver
    builds it *)
Definition ex_palette (i : N) : N * N * N := (i, 255 - i, i / 2).
Definition ex_console : option vesa :=
  match nth_font 0 with
  | Some f => set_font (set_logo_height (new_vesa 1024 768 32 4160 (mkColorInfo 16 8 8 8 0 8) 256 ex_palette) 64) f
  | None => None
  end.

Example C19_vesa_wf_nonvacuous :
  exists c f m, ex_console = Some c /\ nth_font 0 = Some f /\ vesa_wf c f D24 m /\
                wchars c = 128 /\ hchars c = 44 /\ bytespp c = 4.
Proof.
  destruct (nth_font 0) as [f|] eqn:Ef; [|discriminate].
  unfold ex_console. rewrite Ef.
  assert (Hf: f_gw f = 8 /\ f_gh f = 16 /\ f_bpr f = 1 /\ f_dlen f = 4096).
  { apply (f_equal (option_map (fun f => (f_gw f, f_gh f, f_bpr f, f_dlen f)))) in Ef. vm_compute in Ef.
    injection Ef as E1 E2 E3 E4. repeat split; symmetry; assumption. }
  destruct Hf as [F1 [F2 [F3 F4]]].
  unfold set_font. rewrite F1, F2. cbn [N.eqb orb].
  eexists. exists f, (fresh (768 * 4160) (fun _ => 0)). split; [reflexivity|]. split; [reflexivity|].
  split; [|cbn; rewrite ?F1, ?F2; repeat split; reflexivity].
  constructor; cbn; rewrite ?F1, ?F2, ?F3, ?F4; try reflexivity; unfold two32; try lia.
Qed.

(** a small padded 16-bit console with a synthetic font: concrete Fill with wrapping arguments *)
Definition ex_font : font := mkFont 8 2 1 512 (fun i => i mod 256).
Definition ex_small : option vesa :=
  set_font (new_vesa 20 5 16 43 (mkColorInfo 11 5 5 6 0 5) 256 ex_palette) ex_font.

Example C19_vesa_small_wf_nonvacuous :
  exists c, ex_small = Some c /\ vesa_wf c ex_font D16 (fresh 215 (fun i => i mod 256)) /\ wchars c = 2 /\ hchars c = 2.
Proof.
  eexists. split; [reflexivity|]. split; [|split; reflexivity].
  constructor; cbn; try reflexivity; unfold two32; try lia.
Qed.

Example C19_vesa_fill_wrap_example :
  match ex_small with
  | Some c =>
      match vesa_fill c (fresh 215 (fun i => 7)) 2 1 0xffffffff 0xffffffff 0 3 with
      | Ok m' =>
          (* rows 0..3 (2 text lines of 2 pixel rows), pixel columns 8..15: colour 3 = (3,252,1) packed 5/6/5 = 0x07e0;
             pixel columns 16..19 (margin), row 4 (margin) and the padding bytes keep the 7 *)
          firstn 43 (dump m') =
            [7;7;7;7;7;7;7;7;7;7;7;7;7;7;7;7; 0xe0;0x07;0xe0;0x07;0xe0;0x07;0xe0;0x07;0xe0;0x07;0xe0;0x07;0xe0;0x07;0xe0;0x07;
             7;7;7;7;7;7;7;7; 7;7;7] /\
          skipn 172 (dump m') = repeat 7 43%nat
      | _ => False
      end
  | None => False
  end.
Proof. vm_compute. split; reflexivity. Qed.
