(** Representation invariant of the bitmap allocator (DESIGN.md Appendix A.1) and its preservation
    by AllocFrame / FreeFrame / markFrame (C01/C03). *)
From Coq Require Import NArith ZArith Lia List Bool Sorted.
From Coq Require Import ZifyBool ZifyN ZifyNat.
From FF Require Import Lib.Word Gen.Consts_mm_pmm Pmm.Boot Pmm.BootProofs Pmm.Bitmap Pmm.Bits.
Import ListNotations.
Local Open Scope N_scope.

(** Throughout, [R : N -> bool] says which frames are reserved (kernel image, early-boot frames, frames held by
    callers); [upd R f v] changes it at frame [f]. *)
Definition upd (R : N -> bool) (f : N) (v : bool) : N -> bool := fun g => if g =? f then v else R g.

Definition pool_n (p : pool) : N := p_end p + 1 - p_start p.
Definition in_pool (p : pool) (f : N) : Prop := p_start p <= f <= p_end p.
Definition managed (ps : list pool) (f : N) : Prop := exists p, In p ps /\ in_pool p f.

Definition InvPool (R : N -> bool) (p : pool) : Prop :=
  p_start p <= p_end p /\ p_end p < big /\ pool_n p < two32 /\
  pool_n p <= 64 * N.of_nat (length (p_bitmap p)) /\
  (forall i, i < pool_n p -> bitf (p_bitmap p) i = R (p_start p + i)) /\
  p_free p = cnt (bitf (p_bitmap p)) (N.to_nat (pool_n p)).

Definition ranges (ps : list pool) : list (N * N) := map (fun p => (p_start p, p_end p)) ps.

Fixpoint sum_n (rs : list (N * N)) : N :=
  match rs with [] => 0 | (s, e) :: rest => (e + 1 - s) + sum_n rest end.
Fixpoint sum_free (ps : list pool) : N :=
  match ps with [] => 0 | p :: rest => p_free p + sum_free rest end.

Definition ranges_sorted (rs : list (N * N)) : Prop := StronglySorted (fun p q => snd p < fst q) rs.

Definition Inv (R : N -> bool) (a : balloc) : Prop :=
  Forall (InvPool R) (a_pools a) /\ ranges_sorted (ranges (a_pools a)) /\
  a_total a = sum_n (ranges (a_pools a)) /\ a_total a < two32 /\
  a_reserved a + sum_free (a_pools a) = a_total a.

Definition in_ranges (rs : list (N * N)) (f : N) : Prop := exists s e, In (s, e) rs /\ s <= f <= e.

Lemma managed_ranges ps f : managed ps f <-> in_ranges (ranges ps) f.
Proof.
  unfold managed, in_ranges, ranges, in_pool. split.
  - intros (p & Hin & H). exists (p_start p), (p_end p). split; [|assumption].
    apply in_map_iff. exists p. split; [reflexivity|assumption].
  - intros (s & e & Hin & H). apply in_map_iff in Hin. destruct Hin as (p & E & Hin). inversion E; subst.
    exists p. split; assumption.
Qed.

Lemma InvPool_ext R R' p : (forall f, in_pool p f -> R f = R' f) -> InvPool R p -> InvPool R' p.
Proof.
  intros H (H1 & H2 & H3 & H4 & H5 & H6). repeat split; try assumption.
  intros i Hi. rewrite H5 by assumption. apply H. unfold in_pool, pool_n in *. lia.
Qed.

Lemma InvPool_free_le R p : InvPool R p -> p_free p <= pool_n p.
Proof.
  intros (H1 & H2 & H3 & H4 & H5 & H6). rewrite H6.
  pose proof (cnt_le (bitf (p_bitmap p)) (N.to_nat (pool_n p))). lia.
Qed.

Lemma InvPool_write R p i v ws' c' :
  InvPool R p -> i < pool_n p ->
  length ws' = length (p_bitmap p) ->
  (forall j, bitf ws' j = if j =? i then v else bitf (p_bitmap p) j) ->
  c' + (if v then 1 else 0) = p_free p + (if R (p_start p + i) then 1 else 0) ->
  InvPool (upd R (p_start p + i) v) (mkPool (p_start p) (p_end p) c' ws') /\ c' <= pool_n p.
Proof.
  intros (H1 & H2 & H3 & H4 & H5 & H6) Hi Hlen Hb Hc.
  pose proof (cnt_change (bitf (p_bitmap p)) (bitf ws') (N.to_nat (pool_n p)) i ltac:(lia)) as Hcc.
  rewrite Hb, N.eqb_refl, H5 in Hcc by assumption.
  specialize (Hcc ltac:(intros j Hj; rewrite Hb; destruct (N.eqb_spec j i); [contradiction|reflexivity])).
  pose proof (cnt_le (bitf ws') (N.to_nat (pool_n p))) as Hle.
  assert (Ec: c' = cnt (bitf ws') (N.to_nat (pool_n p))) by lia.
  split; [|lia].
  unfold InvPool, pool_n in *; cbn [p_start p_end p_free p_bitmap].
  repeat split; try assumption.
  - rewrite Hlen. assumption.
  - intros j Hj. rewrite Hb. unfold upd. rewrite <- H5 by assumption.
    destruct (N.eqb_spec j i), (N.eqb_spec (p_start p + j) (p_start p + i)); try reflexivity; lia.
Qed.

Lemma dec32_pos x : 1 <= x < two32 -> dec32 x + 1 = x.
Proof. unfold dec32, w32, two32. lia. Qed.

Lemma pool_set_index R p i :
  InvPool R p -> i < pool_n p -> R (p_start p + i) = false ->
  InvPool (upd R (p_start p + i) true)
    (mkPool (p_start p) (p_end p) (dec32 (p_free p))
       (set_nth (N.to_nat (i / 64)) (N.lor (nth (N.to_nat (i / 64)) (p_bitmap p) 0) (2 ^ (63 - i mod 64)))
                (p_bitmap p))) /\
  dec32 (p_free p) + 1 = p_free p.
Proof.
  intros Hinv Hi HR. pose proof Hinv as (H1 & H2 & H3 & H4 & H5 & H6).
  assert (Hdec: dec32 (p_free p) + 1 = p_free p).
  { pose proof (cnt_pos (bitf (p_bitmap p)) (N.to_nat (pool_n p)) i ltac:(lia)) as Hp.
    rewrite H5 in Hp by assumption. specialize (Hp HR).
    pose proof (cnt_le (bitf (p_bitmap p)) (N.to_nat (pool_n p))). apply dec32_pos. lia. }
  assert (Hlen: i / 64 < N.of_nat (length (p_bitmap p))) by (unfold pool_n in *; lia).
  split; [|exact Hdec]. apply InvPool_write; try assumption.
  - apply length_set_nth.
  - intros j. rewrite (bitf_set (p_bitmap p) i _ Hlen eq_refl j).
    destruct (j =? i); [apply orb_true_r|apply orb_false_r].
  - rewrite HR. lia.
Qed.

Lemma pool_clear_index R p i :
  InvPool R p -> i < pool_n p -> R (p_start p + i) = true ->
  InvPool (upd R (p_start p + i) false)
    (mkPool (p_start p) (p_end p) (inc32 (p_free p))
       (set_nth (N.to_nat (i / 64)) (andnot (nth (N.to_nat (i / 64)) (p_bitmap p) 0) (2 ^ (63 - i mod 64)))
                (p_bitmap p))) /\
  inc32 (p_free p) = p_free p + 1 /\ p_free p + 1 <= pool_n p.
Proof.
  intros Hinv Hi HR. pose proof Hinv as (H1 & H2 & H3 & H4 & H5 & H6).
  assert (Hlen: i / 64 < N.of_nat (length (p_bitmap p))) by (unfold pool_n in *; lia).
  destruct (InvPool_write R p i false
              (set_nth (N.to_nat (i / 64)) (andnot (nth (N.to_nat (i / 64)) (p_bitmap p) 0) (2 ^ (63 - i mod 64))) (p_bitmap p))
              (p_free p + 1) Hinv Hi) as [Hinv' Hle].
  - apply length_set_nth.
  - intros j. rewrite (bitf_clear (p_bitmap p) i _ Hlen eq_refl j).
    destruct (j =? i); [apply andb_false_r|apply andb_true_r].
  - rewrite HR. lia.
  - assert (Hinc: inc32 (p_free p) = p_free p + 1) by (unfold inc32; apply w32_small; unfold two32 in *; lia).
    rewrite Hinc. split; [exact Hinv'|]. split; [reflexivity|exact Hle].
Qed.

(** ---- one pool: AllocFrame's inner loops ---- *)
Lemma try_pool_spec R p :
  InvPool R p ->
  match try_pool p with
  | Some (f, p') =>
      in_pool p f /\ R f = false /\ InvPool (upd R f true) p' /\
      p_start p' = p_start p /\ p_end p' = p_end p /\ p_free p' + 1 = p_free p /\
      (forall g, in_pool p g -> R g = false -> f <= g)
  | None => p_free p = 0 /\ (forall g, in_pool p g -> R g = true)
  end.
Proof.
  intros Hinv. pose proof Hinv as (H1 & H2 & H3 & H4 & H5 & H6). unfold try_pool.
  destruct (N.eqb_spec (p_free p) 0) as [E0|E0].
  - split; [assumption|]. intros g Hg. unfold in_pool, pool_n in *.
    rewrite E0 in H6. symmetry in H6.
    pose proof (cnt_zero _ _ H6 (g - p_start p) ltac:(lia)) as Hb.
    rewrite H5 in Hb by lia. replace (p_start p + (g - p_start p)) with g in Hb by lia. assumption.
  - assert (Hc: 1 <= cnt (bitf (p_bitmap p)) (N.to_nat (pool_n p))) by lia.
    destruct (cnt_exists _ _ Hc) as (i & Hi & Hbi).
    pose proof (scan_blocks_spec (p_bitmap p) 0) as S.
    destruct (scan_blocks 0 (p_bitmap p)) as [[[b o] mk]|].
    + (* the scan stops at the lowest clear bit [i0], which is below [i], hence inside the pool *)
      destruct S as (_ & _ & So & Smk & Sfalse & Sleast).
      rewrite N.sub_0_r in *.
      set (i0 := b * 64 + o) in *.
      assert (Hi0: i0 < pool_n p).
      { destruct (N.le_gt_cases i0 i) as [|Hlt]; [lia|]. rewrite (Sleast i Hlt) in Hbi. discriminate. }
      assert (Hb64: i0 / 64 = b) by (unfold i0; lia).
      assert (Ho64: i0 mod 64 = o) by (unfold i0; lia).
      assert (Hf: w64 (p_start p + w64 (N.shiftl b 6 + o)) = p_start p + i0).
      { rewrite N.shiftl_mul_pow2. change (2 ^ 6) with 64. fold i0. unfold pool_n, big, two32 in *.
        rewrite (w64_small i0) by (unfold two64; lia). apply w64_small. unfold two64; lia. }
      rewrite Hf, Smk, <- Ho64, <- Hb64. clear Hf Hb64 Ho64.
      assert (HR: R (p_start p + i0) = false) by (rewrite <- H5 by assumption; assumption).
      destruct (pool_set_index R p i0 Hinv Hi0 HR) as [Hinv' Hdec].
      split; [unfold in_pool, pool_n in *; lia|]. split; [assumption|]. split; [exact Hinv'|].
      split; [reflexivity|]. split; [reflexivity|]. split; [exact Hdec|].
      intros g Hg HRg. unfold in_pool, pool_n in *.
      destruct (N.le_gt_cases (p_start p + i0) g) as [|Hlt]; [assumption|].
      assert (Hbg: bitf (p_bitmap p) (g - p_start p) = true) by (apply Sleast; lia).
      rewrite H5 in Hbg by lia. replace (p_start p + (g - p_start p)) with g in Hbg by lia. congruence.
    + exfalso. rewrite S in Hbi; [discriminate|]. unfold pool_n in *. lia.
Qed.

(** ---- the pool list ---- *)
Lemma sorted_head_lt s e rs f :
  ranges_sorted ((s, e) :: rs) -> in_ranges rs f -> e < f.
Proof.
  intros Hs (s' & e' & Hin & Hf). inversion Hs as [|? ? _ Hall]; subst.
  rewrite Forall_forall in Hall. specialize (Hall _ Hin). cbn in Hall. lia.
Qed.

Lemma sorted_tail r rs : ranges_sorted (r :: rs) -> ranges_sorted rs.
Proof. intros H. inversion H; assumption. Qed.

Lemma managed_cons p ps f : managed (p :: ps) f <-> in_pool p f \/ managed ps f.
Proof.
  unfold managed. split.
  - intros (q & [<-|Hin] & H); [left; assumption|right; exists q; split; assumption].
  - intros [H|(q & Hin & H)]; [exists p; split; [left; reflexivity|assumption]|exists q; split; [right; assumption|assumption]].
Qed.

Lemma Forall_InvPool_ext R R' ps :
  (forall f, managed ps f -> R f = R' f) -> Forall (InvPool R) ps -> Forall (InvPool R') ps.
Proof.
  intros H Hall. rewrite Forall_forall in *. intros p Hin. apply (InvPool_ext R); [|apply Hall; assumption].
  intros f Hf. apply H. exists p. split; assumption.
Qed.

Lemma upd_other R f v g : g <> f -> upd R f v g = R g.
Proof. intros H. unfold upd. destruct (N.eqb_spec g f); [contradiction|reflexivity]. Qed.

Lemma upd_same R f v : upd R f v f = v.
Proof. unfold upd. rewrite N.eqb_refl. reflexivity. Qed.

Lemma alloc_pools_spec R : forall ps,
  Forall (InvPool R) ps -> ranges_sorted (ranges ps) ->
  match alloc_pools ps with
  | Some (f, ps') =>
      managed ps f /\ R f = false /\ Forall (InvPool (upd R f true)) ps' /\
      ranges ps' = ranges ps /\ sum_free ps' + 1 = sum_free ps /\
      (forall g, managed ps g -> R g = false -> f <= g)
  | None => sum_free ps = 0 /\ (forall g, managed ps g -> R g = true)
  end.
Proof.
  induction ps as [|p rest IH]; intros Hall Hsorted; cbn [alloc_pools].
  - split; [reflexivity|]. intros g (q & [] & _).
  - inversion Hall as [|? ? Hp Hrest]; subst. cbn [ranges map] in Hsorted. fold (ranges rest) in Hsorted.
    pose proof (try_pool_spec R p Hp) as T.
    destruct (try_pool p) as [[f p']|].
    + destruct T as (Hin & HR & Hp' & Hs & He & Hfree & Hlow).
      assert (Hnot: forall g, managed rest g -> p_end p < g).
      { intros g Hg. apply (sorted_head_lt (p_start p) (p_end p) (ranges rest)); [assumption|apply managed_ranges; assumption]. }
      split; [apply managed_cons; left; assumption|]. split; [assumption|]. split.
      { constructor; [assumption|]. apply (Forall_InvPool_ext R); [|assumption].
        intros g Hg. symmetry. apply upd_other. specialize (Hnot g Hg). unfold in_pool in Hin. lia. }
      split; [cbn [ranges map]; rewrite Hs, He; reflexivity|].
      split; [cbn [sum_free]; lia|].
      intros g Hg HRg. apply managed_cons in Hg. destruct Hg as [Hg|Hg]; [apply Hlow; assumption|].
      specialize (Hnot g Hg). unfold in_pool in Hin. lia.
    + destruct T as (Hfree0 & Hfull).
      specialize (IH Hrest (sorted_tail _ _ Hsorted)).
      destruct (alloc_pools rest) as [[f rest']|].
      * destruct IH as (Hm & HR & Hall' & Hr & Hsf & Hlow).
        assert (Hnot: p_end p < f).
        { apply (sorted_head_lt (p_start p) (p_end p) (ranges rest)); [assumption|apply managed_ranges; assumption]. }
        split; [apply managed_cons; right; assumption|]. split; [assumption|]. split.
        { constructor; [|assumption]. apply (InvPool_ext R); [|assumption].
          intros g Hg. symmetry. apply upd_other. unfold in_pool in Hg. lia. }
        split; [cbn [ranges map]; fold (ranges rest'); fold (ranges rest); rewrite Hr; reflexivity|].
        split; [cbn [sum_free]; lia|].
        intros g Hg HRg. apply managed_cons in Hg. destruct Hg as [Hg|Hg]; [|apply Hlow; assumption].
        rewrite (Hfull g Hg) in HRg. discriminate.
      * destruct IH as (Hsf & Hfull'). split; [cbn [sum_free]; lia|].
        intros g Hg. apply managed_cons in Hg. destruct Hg as [Hg|Hg]; [apply Hfull|apply Hfull']; assumption.
Qed.

Lemma sum_free_le R ps : Forall (InvPool R) ps -> sum_free ps <= sum_n (ranges ps).
Proof.
  induction ps as [|p rest IH]; intros H; cbn; [lia|].
  inversion H as [|? ? Hp Hrest]; subst. specialize (IH Hrest).
  pose proof (InvPool_free_le R p Hp). unfold pool_n in *. fold (ranges rest). lia.
Qed.

(** AllocFrame *)
Lemma bitmap_alloc_spec R a :
  Inv R a ->
  match bitmap_alloc a with
  | (a', Some f) =>
      managed (a_pools a) f /\ R f = false /\ Inv (upd R f true) a' /\
      ranges (a_pools a') = ranges (a_pools a) /\
      a_total a' = a_total a /\ a_reserved a' = a_reserved a + 1 /\
      (forall g, managed (a_pools a) g -> R g = false -> f <= g)
  | (a', None) =>
      a' = a /\ a_reserved a = a_total a /\ (forall g, managed (a_pools a) g -> R g = true)
  end.
Proof.
  intros (Hall & Hsorted & Htot & Hlt & Hres). unfold bitmap_alloc.
  pose proof (alloc_pools_spec R (a_pools a) Hall Hsorted) as S.
  destruct (alloc_pools (a_pools a)) as [[f ps']|].
  - destruct S as (Hm & HR & Hall' & Hr & Hsf & Hlow).
    assert (Hinc: inc32 (a_reserved a) = a_reserved a + 1).
    { unfold inc32. apply w32_small. unfold two32 in *. lia. }
    repeat split; cbn [a_pools a_total a_reserved]; try assumption.
    + rewrite Hr. assumption.
    + rewrite Hr. assumption.
    + rewrite Hinc. lia.
  - destruct S as (Hsf & Hfull). repeat split; try assumption. lia.
Qed.

(** ---- addressing one frame of one pool (markFrame / FreeFrame) ---- *)
Lemma pool_rel R p f :
  InvPool R p -> in_pool p f ->
  let rel := sub64 f (p_start p) in
  p_start p + rel = f /\ rel < pool_n p /\ N.shiftr rel 6 = rel / 64 /\ bit_mask rel = 2 ^ (63 - rel mod 64).
Proof.
  intros (H1 & H2 & _) Hin. unfold in_pool, pool_n, big in *. cbn zeta.
  rewrite sub64_small by (unfold two64; lia).
  split; [lia|]. split; [lia|]. split; [apply N.shiftr_div_pow2|apply bit_mask_eq].
Qed.

Lemma pool_word R p f :
  InvPool R p -> in_pool p f ->
  let rel := sub64 f (p_start p) in
  exists w, nth_errorN (p_bitmap p) (N.shiftr rel 6) = Some w /\
            nth (N.to_nat (rel / 64)) (p_bitmap p) 0 = w /\
            bitf (p_bitmap p) rel = R f.
Proof.
  intros Hinv Hin. cbn zeta. destruct (pool_rel R p f Hinv Hin) as (Hf & Hlt & -> & _).
  destruct Hinv as (_ & _ & _ & H4 & H5 & _).
  assert (Hl: sub64 f (p_start p) / 64 < N.of_nat (length (p_bitmap p))) by lia.
  destruct (nth_errorN_lt (p_bitmap p) _ Hl) as [w Hw]. exists w. split; [assumption|].
  apply nth_errorN_some in Hw. destruct Hw as [_ Hw].
  split; [apply nth_error_nth; assumption|]. rewrite H5, Hf by assumption. reflexivity.
Qed.

Lemma pool_set_bit R p f w :
  InvPool R p -> in_pool p f -> R f = false ->
  let rel := sub64 f (p_start p) in
  nth (N.to_nat (rel / 64)) (p_bitmap p) 0 = w ->
  InvPool (upd R f true)
    (mkPool (p_start p) (p_end p) (dec32 (p_free p))
            (set_nth (N.to_nat (N.shiftr rel 6)) (N.lor w (bit_mask rel)) (p_bitmap p))) /\
  dec32 (p_free p) + 1 = p_free p.
Proof.
  intros Hinv Hin HR. cbn zeta. intros <-.
  destruct (pool_rel R p f Hinv Hin) as (Hf & Hlt & -> & ->).
  rewrite <- Hf in HR. rewrite <- Hf at 1. apply pool_set_index; assumption.
Qed.

Lemma pool_clear_bit R p f w :
  InvPool R p -> in_pool p f -> R f = true ->
  let rel := sub64 f (p_start p) in
  nth (N.to_nat (rel / 64)) (p_bitmap p) 0 = w ->
  InvPool (upd R f false)
    (mkPool (p_start p) (p_end p) (inc32 (p_free p))
            (set_nth (N.to_nat (N.shiftr rel 6)) (andnot w (bit_mask rel)) (p_bitmap p))) /\
  inc32 (p_free p) = p_free p + 1 /\ p_free p + 1 <= pool_n p.
Proof.
  intros Hinv Hin HR. cbn zeta. intros <-.
  destruct (pool_rel R p f Hinv Hin) as (Hf & Hlt & -> & ->).
  rewrite <- Hf in HR. rewrite <- Hf at 1. apply pool_clear_index; assumption.
Qed.

(** ---- poolForFrame / replacing one pool ---- *)
Lemma pool_for_frame_from_spec f : forall ps idx,
  match pool_for_frame_from idx ps f with
  | Some i => (idx <= i)%nat /\ exists p, nth_error ps (i - idx) = Some p /\ in_pool p f
  | None => forall p, In p ps -> ~ in_pool p f
  end.
Proof.
  induction ps as [|p rest IH]; intros idx; cbn [pool_for_frame_from].
  - intros p [].
  - destruct ((p_start p <=? f) && (f <=? p_end p)) eqn:E.
    + split; [lia|]. exists p. rewrite Nat.sub_diag. split; [reflexivity|unfold in_pool; lia].
    + specialize (IH (S idx)). destruct (pool_for_frame_from (S idx) rest f) as [i|].
      * destruct IH as (Hle & p' & Hn & Hin). split; [lia|]. exists p'. split; [|assumption].
        replace (i - idx)%nat with (S (i - S idx)) by lia. exact Hn.
      * intros q [<-|Hq]; [unfold in_pool; lia|apply IH; assumption].
Qed.

Lemma pool_for_frame_spec a f :
  match pool_for_frame a f with
  | Some i => exists p, nth_error (a_pools a) i = Some p /\ in_pool p f
  | None => ~ managed (a_pools a) f
  end.
Proof.
  unfold pool_for_frame. pose proof (pool_for_frame_from_spec f (a_pools a) 0%nat) as P.
  destruct (pool_for_frame_from 0 (a_pools a) f) as [i|].
  - destruct P as (_ & p & Hnth & Hin). rewrite Nat.sub_0_r in Hnth. exists p. split; assumption.
  - intros (p & Hp & Hin). exact (P p Hp Hin).
Qed.

Lemma Inv_nth R a i p : Inv R a -> nth_error (a_pools a) i = Some p -> InvPool R p.
Proof.
  intros (Hall & _) Hnth. rewrite Forall_forall in Hall. apply Hall. eapply nth_error_In; eassumption.
Qed.

Lemma update_pool_split : forall ps i p p',
  nth_error ps i = Some p ->
  exists l1 l2, ps = l1 ++ p :: l2 /\ update_pool i p' ps = l1 ++ p' :: l2.
Proof.
  induction ps as [|q rest IH]; intros [|i] p p' H; cbn in H; try discriminate.
  - inversion H; subst. exists [], rest. split; reflexivity.
  - destruct (IH i p p' H) as (l1 & l2 & E1 & E2). exists (q :: l1), l2. cbn. rewrite <- E1, E2. split; reflexivity.
Qed.

Lemma sum_free_app l1 l2 : sum_free (l1 ++ l2) = sum_free l1 + sum_free l2.
Proof. induction l1 as [|p l1 IH]; cbn; [reflexivity|rewrite IH; lia]. Qed.

Lemma sorted_others l1 p l2 f :
  ranges_sorted (ranges (l1 ++ p :: l2)) -> in_pool p f ->
  forall q, In q (l1 ++ l2) -> ~ in_pool q f.
Proof.
  induction l1 as [|q0 l1 IH]; intros Hs Hin q Hq; cbn [app] in *.
  - cbn [ranges map] in Hs. fold (ranges l2) in Hs.
    assert (p_end p < f -> False) by (unfold in_pool in Hin; lia).
    intros Hqf. apply H. apply (sorted_head_lt (p_start p) (p_end p) (ranges l2)); [assumption|].
    apply managed_ranges. exists q. split; assumption.
  - cbn [ranges map] in Hs. fold (ranges (l1 ++ p :: l2)) in Hs.
    destruct Hq as [<-|Hq].
    + intros Hqf. unfold in_pool in *.
      assert (p_end q0 < f); [|lia].
      apply (sorted_head_lt (p_start q0) (p_end q0) (ranges (l1 ++ p :: l2))); [assumption|].
      apply managed_ranges. exists p. split; [apply in_or_app; right; left; reflexivity|assumption].
    + apply IH; [apply (sorted_tail _ _ Hs)|assumption|assumption].
Qed.

(** replacing the pool that holds [f] by one that differs only in the bit of [f] *)
Lemma Inv_update R a i p p' f v total' reserved' :
  Inv R a -> nth_error (a_pools a) i = Some p -> in_pool p f ->
  InvPool (upd R f v) p' -> p_start p' = p_start p -> p_end p' = p_end p ->
  total' = a_total a -> reserved' + p_free p' = a_reserved a + p_free p ->
  Inv (upd R f v) (mkBA total' reserved' (update_pool i p' (a_pools a))) /\
  ranges (update_pool i p' (a_pools a)) = ranges (a_pools a).
Proof.
  intros (Hall & Hsorted & Htot & Hlt & Hres) Hnth Hin Hp' Hs He Ht Hr.
  destruct (update_pool_split (a_pools a) i p p' Hnth) as (l1 & l2 & E1 & E2).
  rewrite E2. rewrite E1 in *.
  assert (Hranges: ranges (l1 ++ p' :: l2) = ranges (l1 ++ p :: l2)).
  { unfold ranges. rewrite !map_app. cbn [map]. rewrite Hs, He. reflexivity. }
  split; [|assumption].
  unfold Inv; cbn [a_pools a_total a_reserved]. rewrite Hranges.
  pose proof (sorted_others l1 p l2 f Hsorted Hin) as Hoth.
  apply Forall_app in Hall. destruct Hall as [Hall1 Hall2]. inversion Hall2 as [|? ? Hp Hall2']; subst.
  repeat split; try assumption; try lia.
  - apply Forall_app. split; [|constructor; [assumption|]].
    + rewrite Forall_forall in *. intros q Hq. apply (InvPool_ext R); [|apply Hall1; assumption].
      intros g Hg. symmetry. apply upd_other. intros ->. apply (Hoth q); [apply in_or_app; left; assumption|assumption].
    + rewrite Forall_forall in *. intros q Hq. apply (InvPool_ext R); [|apply Hall2'; assumption].
      intros g Hg. symmetry. apply upd_other. intros ->. apply (Hoth q); [apply in_or_app; right; assumption|assumption].
  - rewrite sum_free_app in *. cbn [sum_free] in *. lia.
Qed.

Lemma Inv_ext_managed R R' a :
  (forall g, managed (a_pools a) g -> R g = R' g) -> Inv R a -> Inv R' a.
Proof.
  intros E (H1 & H2 & H3 & H4 & H5). repeat split; try assumption.
  apply (Forall_InvPool_ext R); assumption.
Qed.

Lemma Inv_ext R R' a : (forall g, R g = R' g) -> Inv R a -> Inv R' a.
Proof. intros E. apply Inv_ext_managed. intros g _. apply E. Qed.

Lemma sum_free_slack R : forall ps i p,
  Forall (InvPool R) ps -> nth_error ps i = Some p ->
  p_free p <= sum_free ps /\ sum_free ps + pool_n p <= sum_n (ranges ps) + p_free p.
Proof.
  induction ps as [|q ps IH]; intros [|i] p Hall Hnth; cbn in Hnth; try discriminate;
    inversion Hall as [|? ? Hq Hps]; subst; cbn [sum_free ranges map sum_n]; fold (ranges ps).
  - injection Hnth as ->. pose proof (sum_free_le R ps Hps). unfold pool_n. lia.
  - destruct (IH i p Hps Hnth). pose proof (InvPool_free_le R q Hq). unfold pool_n in *. lia.
Qed.

(** FreeFrame *)
Lemma bitmap_free_spec R a f :
  Inv R a ->
  match bitmap_free a f with
  | (a', FreeOk) =>
      managed (a_pools a) f /\ R f = true /\ Inv (upd R f false) a' /\
      ranges (a_pools a') = ranges (a_pools a) /\
      a_total a' = a_total a /\ a_reserved a' + 1 = a_reserved a
  | (a', FreeNotManaged) => a' = a /\ ~ managed (a_pools a) f
  | (a', FreeDoubleFree) => a' = a /\ managed (a_pools a) f /\ R f = false
  | (a', FreePanic) => False
  end.
Proof.
  intros Hinv. unfold bitmap_free.
  pose proof (pool_for_frame_spec a f) as P.
  destruct (pool_for_frame a f) as [i|]; [|split; [reflexivity|exact P]].
  destruct P as (p & Hnth & Hin). rewrite Hnth.
  assert (Hm: managed (a_pools a) f) by (exists p; split; [eapply nth_error_In; eassumption|assumption]).
  pose proof (Inv_nth R a i p Hinv Hnth) as Hp.
  destruct (pool_rel R p f Hp Hin) as (_ & _ & _ & Hmask).
  destruct (pool_word R p f Hp Hin) as (w & Hw & Hnthw & Hbit).
  rewrite Hw, Hmask, (bitf_test (p_bitmap p) _ w Hnthw), Hbit, <- Hmask.
  destruct (R f) eqn:HR; cbn [negb]; [|repeat split; assumption].
  destruct (pool_clear_bit R p f w Hp Hin HR Hnthw) as (Hp' & Hinc & Hle).
  assert (Hdec: dec32 (a_reserved a) + 1 = a_reserved a).
  { destruct Hinv as (Hall & _ & Htot & Hlt32 & Hres).
    destruct (sum_free_slack R (a_pools a) i p Hall Hnth) as [_ Hsl].
    apply dec32_pos. clear - Hsl Hle Htot Hlt32 Hres. lia. }
  destruct (Inv_update R a i p _ f false (a_total a) (dec32 (a_reserved a)) Hinv Hnth Hin Hp' eq_refl eq_refl eq_refl) as [HI Hr].
  { cbn [p_free]. clear - Hinc Hdec. lia. }
  split; [assumption|]. split; [reflexivity|]. split; [exact HI|]. split; [exact Hr|]. split; [reflexivity|exact Hdec].
Qed.

Lemma mark_reserved_at R a i p f :
  Inv R a -> nth_error (a_pools a) i = Some p -> in_pool p f -> R f = false ->
  exists a', mark_reserved a (Some i) f = Ok a' /\ Inv (upd R f true) a' /\
             ranges (a_pools a') = ranges (a_pools a) /\ a_total a' = a_total a /\
             a_reserved a' = a_reserved a + 1.
Proof.
  intros Hinv Hnth Hin HR. unfold mark_reserved. rewrite Hnth.
  pose proof (Inv_nth R a i p Hinv Hnth) as Hp.
  assert (Hend: (p_end p <? f) = false) by (unfold in_pool in Hin; lia). rewrite Hend.
  destruct (pool_word R p f Hp Hin) as (w & Hw & Hnthw & _).
  rewrite Hw.
  destruct (pool_set_bit R p f w Hp Hin HR Hnthw) as (Hp' & Hdec).
  assert (Hinc: inc32 (a_reserved a) = a_reserved a + 1).
  { destruct Hinv as (Hall & _ & Htot & Hlt32 & Hres).
    destruct (sum_free_slack R (a_pools a) i p Hall Hnth) as [Hsl _].
    unfold inc32. apply w32_small. clear - Hsl Hdec Htot Hlt32 Hres. lia. }
  destruct (Inv_update R a i p _ f true (a_total a) (inc32 (a_reserved a)) Hinv Hnth Hin Hp' eq_refl eq_refl eq_refl) as [HI Hr].
  { cbn [p_free]. clear - Hinc Hdec. lia. }
  eexists. split; [reflexivity|]. split; [exact HI|]. split; [exact Hr|]. split; [reflexivity|exact Hinc].
Qed.

(** markFrame(poolForFrame(f), f, markReserved) on a frame that is managed and not yet reserved *)
Lemma mark_reserved_spec R a f :
  Inv R a -> managed (a_pools a) f -> R f = false ->
  exists a', mark_reserved a (pool_for_frame a f) f = Ok a' /\ Inv (upd R f true) a' /\
             ranges (a_pools a') = ranges (a_pools a) /\ a_total a' = a_total a /\
             a_reserved a' = a_reserved a + 1.
Proof.
  intros Hinv Hm HR. pose proof (pool_for_frame_spec a f) as P.
  destruct (pool_for_frame a f) as [i|]; [|contradiction].
  destruct P as (p & Hnth & Hin). exact (mark_reserved_at R a i p f Hinv Hnth Hin HR).
Qed.
