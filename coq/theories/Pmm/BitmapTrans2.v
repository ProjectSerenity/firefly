(** Bitmap frame allocator, tie by translation, second part: two more functions of
    kernel/mm/pmm/bitmap_allocator.go.

    - markFrame(poolIndex, frame, markFree).  No caller in the kernel passes markFree (FreeFrame clears the bit
      inline), so Pmm/Bitmap.v has no such operation; [mark_free] below is its model, written like [mark_reserved]
      (it is [BitmapTrans.mark true] unfolded, as [mark_reserved] is [BitmapTrans.mark false]: the two ties hold by conversion);
      [mark_free_is_bitmap_free] shows that it is the state change of a successful [bitmap_free].
    - reserveKernelFrames: the loop over the kernel's frames, [reserve_kernel] of Pmm/Bitmap.v.  The two fields of the
      package-level [bootMemAllocator] it reads (kernelStartFrame, kernelEndFrame) are extra parameters of the
      translation (config "extvars"). *)
From Coq Require Import NArith ZArith String List Bool Lia.
From Coq Require Import ZifyBool ZifyN ZifyNat.
From FF Require Import Lib.Word Lib.GoOps Lib.GoOpsExt Gen.Consts_mm_pmm Gen.Trans_pmm_bitmap.
From FF Require Import Pmm.Boot Pmm.Bitmap Pmm.Bits Pmm.BitmapTrans.
From FF Require Pmm.BitmapProofs.
Import ListNotations.
Local Open Scope N_scope.

(** ---- markFrame(poolIndex, frame, markFree) ---- *)
Definition mark_free (a : balloc) (pi : option nat) (f : N) : outcome balloc :=
  match pi with
  | None => Ok a
  | Some i =>
      match nth_error (a_pools a) i with
      | None => Panic
      | Some p =>
          if p_end p <? f then Ok a else
          let rel := sub64 f (p_start p) in
          let block := N.shiftr rel 6 in
          match nth_errorN (p_bitmap p) block with
          | None => Panic
          | Some w =>
              let p' := mkPool (p_start p) (p_end p) (inc32 (p_free p)) (set_nth (N.to_nat block) (andnot w (bit_mask rel)) (p_bitmap p)) in
              Ok (mkBA (a_total a) (dec32 (a_reserved a)) (update_pool i p' (a_pools a)))
          end
      end
  end.

Theorem markFrame_free_is_translation mtx a tr (pi : option nat) f :
  N.of_nat (length (a_pools a)) < two63 -> (forall i, pi = Some i -> N.of_nat i < two63) ->
  go_pmm_BitmapAllocator_markFrame (to_ga mtx a tr) (idx_of pi) f true = mark_res mtx tr (mark_free a pi f).
Proof. exact (fun Hl Hpi => markFrame_is_translation mtx a tr pi f true Hl Hpi). Qed.

(** [mark_free] is what a successful FreeFrame does to the allocator *)
Theorem mark_free_is_bitmap_free a f i a' :
  pool_for_frame a f = Some i -> bitmap_free a f = (a', FreeOk) -> mark_free a (Some i) f = Ok a'.
Proof.
  intros Hp Hf. unfold bitmap_free in Hf. rewrite Hp in Hf. unfold mark_free.
  pose proof (BitmapProofs.pool_for_frame_spec a f) as P. rewrite Hp in P.
  destruct P as (p & Hn & Hin). unfold BitmapProofs.in_pool in Hin.
  rewrite Hn in *. replace (p_end p <? f) with false by lia. cbv zeta in *.
  destruct (nth_errorN (p_bitmap p) (N.shiftr (sub64 f (p_start p)) 6)) as [w|]; [|discriminate].
  destruct (N.land w (bit_mask (sub64 f (p_start p))) =? 0); [discriminate|].
  injection Hf as <-. reflexivity.
Qed.

(** ---- reserveKernelFrames ---- *)
(** the loop as Go runs it: one markFrame(poolIndex, frame, markReserved) per frame, first frame first, a panic ends it *)
Fixpoint kloop (pi : option nat) (n : nat) (f : N) (a : balloc) : outcome balloc :=
  match n with
  | O => Ok a
  | S n' =>
      match mark_reserved a pi f with
      | Ok a1 => kloop pi n' (f + 1) a1
      | Panic => Panic
      | Hang => Hang
      end
  end.

Lemma mark_reserved_length a pi f a1 : mark_reserved a pi f = Ok a1 -> length (a_pools a1) = length (a_pools a).
Proof.
  unfold mark_reserved. destruct pi as [i|]; [|intros [= <-]; reflexivity].
  destruct (nth_error (a_pools a) i) as [p|]; [|discriminate].
  destruct (p_end p <? f); [intros [= <-]; reflexivity|]. cbv zeta.
  destruct (nth_errorN (p_bitmap p) _); [|discriminate]. intros [= <-]. cbn [a_pools]. apply length_update_pool.
Qed.

(** the translated loop = [kloop]: [n] iterations remain before the frame counter reaches [ke + 1] *)
Lemma kloop_is_gloop mtx tr pi ke : ke < max64 -> (forall i, pi = Some i -> N.of_nat i < two63) ->
  forall n fuel f a, (n < fuel)%nat -> N.of_nat (length (a_pools a)) < two63 -> f + N.of_nat n = ke + 1 ->
  gloop (R := (go_pmm_BitmapAllocator * unit)%type) fuel
    (fun st : (go_pmm_BitmapAllocator * N)%type => let '(v_alloc, v_frame) := st in
       if (v_frame <=? ke)
       then (match go_pmm_BitmapAllocator_markFrame v_alloc (idx_of pi) v_frame false with GPanic => GPanic | GFuel => GFuel | GOk (v_alloc, _) =>
             (GOk (GNext (v_alloc, gw 64 (v_frame + 1)))) end)
       else ((GOk (GBreak (v_alloc, v_frame))))) (to_ga mtx a tr, f) =
  match kloop pi n f a with
  | Ok a' => GOk (inl (to_ga mtx a' tr, ke + 1))
  | Panic => GPanic
  | Hang => GFuel
  end.
Proof.
  intros Hke Hpi. induction n as [|n IH]; intros fuel f a Hf Hl E.
  - destruct fuel as [|fuel]; [lia|]. cbn [gloop kloop].
    replace (f <=? ke) with false by lia. replace f with (ke + 1) by lia. reflexivity.
  - destruct fuel as [|fuel]; [lia|]. cbn [gloop kloop].
    replace (f <=? ke) with true by lia.
    rewrite (markFrame_reserved_is_translation mtx a tr pi f Hl Hpi).
    destruct (mark_reserved a pi f) as [a1| |] eqn:Em; cbn [mark_res]; [|reflexivity|reflexivity].
    cbv zeta. rewrite (gw64_small' (f + 1)) by (unfold max64, two64 in Hke; change (2 ^ 64) with 18446744073709551616; lia).
    apply IH; [lia| |lia].
    rewrite (mark_reserved_length _ _ _ _ Em). exact Hl.
Qed.

(** [reserve_kernel] of Pmm/Bitmap.v iterates a step with a sticky outcome, and only up to the pool's last frame;
    Go iterates up to kernelEndFrame: the calls beyond the pool's end return at once. *)
Definition kF (i : nat) (st : N * outcome balloc) : N * outcome balloc :=
  let '(f, o) := st in (f + 1, obind o (fun a' => mark_reserved a' (Some i) f)).

Lemma iter_succ_r' {A} (F : A -> A) : forall n x, Nat.iter (S n) F x = Nat.iter n F (F x).
Proof.
  induction n as [|n IH]; intros x; [reflexivity|].
  change (Nat.iter (S (S n)) F x) with (F (Nat.iter (S n) F x)). rewrite IH. reflexivity.
Qed.

Lemma iter_sticky {X A} (F : X * outcome A -> X * outcome A) o :
  (forall s, snd (F (s, o)) = o) -> forall n s, snd (Nat.iter n F (s, o)) = o.
Proof.
  intros HF. induction n as [|n IH]; intros s; [reflexivity|].
  change (Nat.iter (S n) F (s, o)) with (F (Nat.iter n F (s, o))).
  specialize (IH s). destruct (Nat.iter n F (s, o)) as [s' o']. cbn [snd] in IH. subst o'. apply HF.
Qed.

Lemma kF_kloop i : forall n f a, snd (Nat.iter n (kF i) (f, Ok a)) = kloop (Some i) n f a.
Proof.
  induction n as [|n IH]; intros f a; [reflexivity|].
  rewrite iter_succ_r'. cbn [kF obind kloop].
  destruct (mark_reserved a (Some i) f) as [a1| |].
  - apply IH.
  - apply iter_sticky. reflexivity.
  - apply iter_sticky. reflexivity.
Qed.

Lemma kloop_none : forall n f a, kloop None n f a = Ok a.
Proof. induction n as [|n IH]; intros f a; [reflexivity|]. cbn [kloop mark_reserved]. apply IH. Qed.

Lemma mark_reserved_beyond a i f q : nth_error (a_pools a) i = Some q -> p_end q < f -> mark_reserved a (Some i) f = Ok a.
Proof. intros Hq Hf. unfold mark_reserved. rewrite Hq. replace (p_end q <? f) with true by lia. reflexivity. Qed.

Lemma kloop_noop i : forall n f a q, nth_error (a_pools a) i = Some q -> p_end q < f -> kloop (Some i) n f a = Ok a.
Proof.
  induction n as [|n IH]; intros f a q Hq Hf; [reflexivity|].
  cbn [kloop]. rewrite (mark_reserved_beyond a i f q Hq Hf). apply (IH _ _ q Hq). lia.
Qed.

Lemma mark_reserved_pend a i f a1 q : mark_reserved a (Some i) f = Ok a1 -> nth_error (a_pools a) i = Some q ->
  exists q', nth_error (a_pools a1) i = Some q' /\ p_end q' = p_end q.
Proof.
  intros H Hq. unfold mark_reserved in H. rewrite Hq in H.
  destruct (p_end q <? f); [injection H as <-; exists q; split; [exact Hq|reflexivity]|]. cbv zeta in H.
  destruct (nth_errorN (p_bitmap q) _) as [w|]; [|discriminate]. injection H as <-. cbn [a_pools].
  eexists. split; [apply nth_update_pool; apply nth_error_Some; congruence|reflexivity].
Qed.

Lemma kloop_pend i : forall n f a a' q, kloop (Some i) n f a = Ok a' -> nth_error (a_pools a) i = Some q ->
  exists q', nth_error (a_pools a') i = Some q' /\ p_end q' = p_end q.
Proof.
  induction n as [|n IH]; intros f a a' q H Hq; cbn [kloop] in H.
  - injection H as <-. exists q. split; [exact Hq|reflexivity].
  - destruct (mark_reserved a (Some i) f) as [a1| |] eqn:Em; try discriminate.
    destruct (mark_reserved_pend _ _ _ _ _ Em Hq) as [q1 [Hq1 E1]].
    destruct (IH _ _ _ _ H Hq1) as [q' [Hq' E']]. exists q'. split; [exact Hq'|congruence].
Qed.

Lemma kloop_app pi : forall n1 n2 f a,
  kloop pi (n1 + n2) f a =
  match kloop pi n1 f a with Ok a1 => kloop pi n2 (f + N.of_nat n1) a1 | Panic => Panic | Hang => Hang end.
Proof.
  induction n1 as [|n1 IH]; intros n2 f a.
  - cbn [Nat.add kloop]. rewrite N.add_0_r. reflexivity.
  - cbn [Nat.add kloop]. destruct (mark_reserved a pi f) as [a1| |]; [|reflexivity|reflexivity].
    rewrite IH. replace (f + 1 + N.of_nat n1) with (f + N.of_nat (S n1)) by lia. reflexivity.
Qed.

Lemma reserve_kernel_kloop a ks ke : ke < max64 ->
  reserve_kernel a ks ke = kloop (pool_for_frame a ks) (N.to_nat (ke + 1 - ks)) ks a.
Proof.
  intros Hke. unfold reserve_kernel. replace (ke =? max64) with false by lia.
  destruct (pool_for_frame a ks) as [i|] eqn:Ei; [|symmetry; apply kloop_none].
  pose proof (pool_for_frame_lt _ _ _ Ei) as Hi.
  destruct (nth_error (a_pools a) i) as [p|] eqn:Ep; [|apply nth_error_None in Ep; lia].
  cbv zeta. rewrite N2Nat.inj_iter.
  change (fun st : N * outcome balloc => let '(f, o) := st in (f + 1, obind o (fun a' : balloc => mark_reserved a' (Some i) f)))
    with (kF i).
  rewrite kF_kloop.
  destruct (N.min_spec ke (p_end p)) as [[Hlt ->] | [Hge ->]].
  - (* the kernel ends inside the pool: the same number of iterations *)
    destruct (ks <=? ke) eqn:Ek.
    + reflexivity.
    + replace (N.to_nat (ke + 1 - ks)) with O by lia. reflexivity.
  - (* the pool ends first: the remaining calls return at once *)
    destruct (ks <=? p_end p) eqn:Ek.
    + replace (N.to_nat (ke + 1 - ks)) with (N.to_nat (p_end p + 1 - ks) + N.to_nat (ke - p_end p))%nat by lia.
      rewrite kloop_app. destruct (kloop (Some i) (N.to_nat (p_end p + 1 - ks)) ks a) as [a1| |] eqn:E1; try reflexivity.
      destruct (kloop_pend _ _ _ _ _ _ E1 Ep) as [q' [Hq' Eq']].
      symmetry. apply (kloop_noop i _ _ _ q' Hq'). lia.
    + cbn [N.to_nat kloop]. symmetry. apply (kloop_noop i _ _ _ p Ep). lia.
Qed.

Theorem reserveKernelFrames_is_translation mtx a tr ks ke fuel :
  N.of_nat (length (a_pools a)) < two63 -> (length (a_pools a) < fuel)%nat ->
  ke < max64 -> (N.to_nat (ke + 1 - ks) < fuel)%nat ->
  go_pmm_BitmapAllocator_reserveKernelFrames fuel (to_ga mtx a tr) ke ks = mark_res mtx tr (reserve_kernel a ks ke).
Proof.
  intros Hl Hf Hke Hn. unfold go_pmm_BitmapAllocator_reserveKernelFrames.
  rewrite (poolForFrame_is_translation mtx a tr ks fuel Hf). cbv zeta.
  rewrite (reserve_kernel_kloop a ks ke Hke).
  assert (Hpi : forall i, pool_for_frame a ks = Some i -> N.of_nat i < two63)
    by (intros i Ei; pose proof (pool_for_frame_lt _ _ _ Ei); lia).
  destruct (ks <=? ke) eqn:Ek.
  - rewrite (kloop_is_gloop mtx tr (pool_for_frame a ks) ke Hke Hpi (N.to_nat (ke + 1 - ks)) fuel ks a Hn Hl) by lia.
    destruct (kloop (pool_for_frame a ks) (N.to_nat (ke + 1 - ks)) ks a); reflexivity.
  - (* kernelStartFrame > kernelEndFrame: the loop body never runs *)
    replace (N.to_nat (ke + 1 - ks)) with O by lia. cbn [kloop mark_res].
    destruct fuel as [|fuel]; [lia|]. cbn [gloop]. replace (ks <=? ke) with false by lia. reflexivity.
Qed.
