(** The hand-written model of the bitmap frame allocator (Pmm/Bitmap.v: [pool_for_frame], [mark_reserved],
    [bitmap_free], [bitmap_alloc]) IS the Gallina translation that gen/gotrans regenerates from
    kernel/mm/pmm/bitmap_allocator.go on every run (Gen/Trans_pmm_bitmap.v: poolForFrame, markFrame,
    FreeFrame, AllocFrame).

    The translation works on records generated from the Go structs: BitmapAllocator (mutex - a value whose
    Acquire / Release calls are events on the trace -, totalPages, reservedPages, pools []framePool) and
    framePool (startFrame, endFrame, freeCount, freeBitmap []uint64); the unsafe slice headers are left out.
    [to_ga] maps the model's [balloc] to it.  Results are [gres]; loops run on fuel. *)
From Coq Require Import NArith ZArith String List Bool Lia.
From Coq Require Import ZifyBool ZifyN ZifyNat.
From FF Require Import Lib.Std Lib.Word Lib.GoOps Lib.GoOpsExt Gen.Consts_mm_pmm Gen.Trans_pmm_bitmap.
From FF Require Import Pmm.Boot Pmm.Bitmap Pmm.Bits.
From FF Require Pmm.BitmapProofs.
Import ListNotations.
Local Open Scope N_scope.

(** ---- the abstraction ---- *)
Definition to_gpool (p : pool) : go_pmm_framePool :=
  mk_go_pmm_framePool (p_start p) (p_end p) (p_free p) (p_bitmap p).

Definition to_ga (mtx : bool) (a : balloc) (tr : list gevent) : go_pmm_BitmapAllocator :=
  mk_go_pmm_BitmapAllocator mtx (a_total a) (a_reserved a) (map to_gpool (a_pools a)) tr.

Definition ev_acquire : gevent := GEv "Acquire" [].
Definition ev_release : gevent := GEv "Release" [].

Ltac asimp :=
  cbn [to_ga to_gpool
       f_BitmapAllocator_mutex f_BitmapAllocator_totalPages f_BitmapAllocator_reservedPages f_BitmapAllocator_pools
       f_BitmapAllocator_trace f_framePool_startFrame f_framePool_endFrame f_framePool_freeCount f_framePool_freeBitmap
       set_f_BitmapAllocator_mutex set_f_BitmapAllocator_totalPages set_f_BitmapAllocator_reservedPages
       set_f_BitmapAllocator_pools set_f_BitmapAllocator_trace
       set_f_framePool_startFrame set_f_framePool_endFrame set_f_framePool_freeCount set_f_framePool_freeBitmap
       a_total a_reserved a_pools p_start p_end p_free p_bitmap].

(** ---- lists of pools / words: the model's primitives are the translation's ---- *)
Lemma glenA_map {A B} (f : A -> B) l : glenA (map f l) = N.of_nat (length l).
Proof. unfold glenA. rewrite map_length. reflexivity. Qed.

Lemma gidxA_map {A B} (f : A -> B) l (i : nat) : gidxA (map f l) (N.of_nat i) = option_map f (nth_error l i).
Proof. unfold gidxA. rewrite Nat2N.id. apply nth_error_map. Qed.

Lemma gidxsA_map {A B} (f : A -> B) l (i : nat) : N.of_nat (length l) < two63 ->
  gidxsA 64 (map f l) (N.of_nat i) = option_map f (nth_error l i).
Proof.
  intros H. unfold gidxsA. destruct (N.lt_ge_cases (N.of_nat i) two63) as [A0|A0].
  - rewrite gisneg_small by exact A0. apply gidxA_map.
  - rewrite gisneg_big by exact A0. symmetry.
    replace (nth_error l i) with (@None A); [reflexivity|]. symmetry. apply nth_error_None. lia.
Qed.

Lemma update_pool_firstn_skipn : forall (ps : list pool) i p', (i < length ps)%nat ->
  update_pool i p' ps = firstn i ps ++ p' :: skipn (S i) ps.
Proof.
  induction ps as [|h tl IH]; intros i p' H; cbn [length] in H; [lia|].
  destruct i as [|i]; [reflexivity|]. cbn [update_pool firstn skipn app]. f_equal. apply IH. lia.
Qed.

Lemma gsetsA_map_update (ps : list pool) (i : nat) p' : (i < length ps)%nat -> N.of_nat (length ps) < two63 ->
  gsetsA 64 (map to_gpool ps) (N.of_nat i) (to_gpool p') = Some (map to_gpool (update_pool i p' ps)).
Proof.
  intros Hi Hl. unfold gsetsA. rewrite gisneg_small by lia. unfold gsetA. rewrite glenA_map.
  destruct (N.ltb_spec (N.of_nat i) (N.of_nat (length ps))); [|lia].
  rewrite Nat2N.id, update_pool_firstn_skipn by exact Hi.
  rewrite map_app, firstn_map. cbn [map]. rewrite skipn_map. reflexivity.
Qed.

Lemma nth_errorN_gidx (l : list N) i : nth_errorN l i = gidx l i.
Proof.
  unfold nth_errorN, gidx. destruct (N.ltb_spec i (N.of_nat (length l))); [reflexivity|].
  symmetry. apply nth_error_None. lia.
Qed.

Lemma set_nth_firstn_skipn : forall (l : list N) i w, (i < length l)%nat ->
  set_nth i w l = firstn i l ++ w :: skipn (S i) l.
Proof.
  induction l as [|h tl IH]; intros i w H; cbn [length] in H; [lia|].
  destruct i as [|i]; [reflexivity|]. cbn [set_nth firstn skipn app]. f_equal. apply IH. lia.
Qed.

Lemma gset_set_nth (l : list N) i w x : gidx l i = Some x -> gset l i w = Some (set_nth (N.to_nat i) w l).
Proof.
  intros H. assert (Hi : (N.to_nat i < length l)%nat) by (apply nth_error_Some; unfold gidx in H; congruence).
  rewrite gset_some by (unfold glen; lia). rewrite set_nth_firstn_skipn by exact Hi. reflexivity.
Qed.

(** the mask of markFrame / FreeFrame: [uint64(1 << (63 - (relFrame - block<<6)))] *)
Lemma mask_eq rel : rel < two64 ->
  gw 64 (N.shiftl 1 (gsub 64 63 (gsub 64 rel (gw 64 (N.shiftl (N.shiftr rel 6) 6))))) = bit_mask rel.
Proof.
  intros H. unfold two64 in H. unfold bit_mask.
  assert (E : N.shiftl (N.shiftr rel 6) 6 = rel / 64 * 64)
    by (rewrite N.shiftr_div_pow2, N.shiftl_mul_pow2; reflexivity).
  rewrite E. clear E.
  assert (A : rel / 64 * 64 <= rel) by lia.
  assert (B : rel - rel / 64 * 64 < 64) by lia.
  change (2 ^ 64) with 18446744073709551616 in *.
  rewrite (gw64_small' (rel / 64 * 64)) by (change (2 ^ 64) with 18446744073709551616; lia).
  rewrite (gsub64_small' rel) by (try change (2 ^ 64) with 18446744073709551616; lia).
  rewrite gsub64_small' by (try change (2 ^ 64) with 18446744073709551616; lia).
  apply gw64_small'. rewrite N.shiftl_1_l. apply N.pow_lt_mono_r; lia.
Qed.

Lemma dec32_eq x : gsub 32 x 1 = dec32 x.
Proof. unfold gsub, dec32, gw, w32, two32. change (2 ^ 32) with 4294967296. f_equal. change (1 mod 4294967296) with 1. lia. Qed.

Lemma inc32_eq x : gw 32 (x + 1) = inc32 x.
Proof. reflexivity. Qed.

(** ---- poolForFrame ---- *)
Definition idx_of (o : option nat) : N := match o with Some i => N.of_nat i | None => 2 ^ 64 - 1 end.

Theorem poolForFrame_is_translation mtx a tr f fuel :
  (length (a_pools a) < fuel)%nat ->
  go_pmm_BitmapAllocator_poolForFrame fuel (to_ga mtx a tr) f = GOk (to_ga mtx a tr, idx_of (pool_for_frame a f)).
Proof.
  intros Hfuel. cbv delta [go_pmm_BitmapAllocator_poolForFrame]. cbv beta zeta. asimp.
  match goal with |- context [gloop fuel ?f0 _] => set (step := f0) end.
  assert (L : forall n k fu, (k + n = length (a_pools a))%nat -> (n < fu)%nat ->
            gloop fu step (to_ga mtx a tr, N.of_nat k) =
            match pool_for_frame_from k (skipn k (a_pools a)) f with
            | Some i => GOk (inr (to_ga mtx a tr, N.of_nat i))
            | None => GOk (inl (to_ga mtx a tr, N.of_nat (length (a_pools a))))
            end).
  { induction n as [|n IH]; intros k fu Hk Hfu; (destruct fu as [|fu]; [lia|]).
    - rewrite skipn_all2 by lia. cbn [pool_for_frame_from].
      rewrite gloop_break with (s' := (to_ga mtx a tr, N.of_nat k)); [repeat f_equal; lia|].
      unfold step. rewrite glenA_map. destruct (N.ltb_spec (N.of_nat k) (N.of_nat (length (a_pools a)))); [lia|reflexivity].
    - destruct (nth_error (a_pools a) k) as [p|] eqn:Ep; [|apply nth_error_None in Ep; lia].
      rewrite (skipn_nth_error_cons _ _ _ Ep). cbn [pool_for_frame_from].
      rewrite gloop_S. unfold step at 1. cbv beta iota zeta. asimp. rewrite glenA_map.
      destruct (N.ltb_spec (N.of_nat k) (N.of_nat (length (a_pools a)))); [|lia].
      rewrite gidxA_map, Ep. cbn [option_map]. asimp.
      destruct ((p_start p <=? f) && (f <=? p_end p)); [reflexivity|].
      replace (N.of_nat k + 1) with (N.of_nat (S k)) by lia. apply IH; lia. }
  change (gloop fuel step (to_ga mtx a tr, 0)) with (gloop fuel step (to_ga mtx a tr, N.of_nat 0)).
  rewrite (L (length (a_pools a)) 0%nat fuel eq_refl Hfuel). cbn [skipn].
  unfold pool_for_frame. destruct (pool_for_frame_from 0 (a_pools a) f); reflexivity.
Qed.

(** ---- folding: an update of the translation's records is the model's record with that field replaced ---- *)
Lemma fold_tr mtx a tr tr' : set_f_BitmapAllocator_trace (to_ga mtx a tr) tr' = to_ga mtx a tr'.
Proof. reflexivity. Qed.
Lemma fold_pools mtx a tr ps :
  set_f_BitmapAllocator_pools (to_ga mtx a tr) (map to_gpool ps) = to_ga mtx (mkBA (a_total a) (a_reserved a) ps) tr.
Proof. reflexivity. Qed.
Lemma fold_reserved mtx a tr x :
  set_f_BitmapAllocator_reservedPages (to_ga mtx a tr) x = to_ga mtx (mkBA (a_total a) x (a_pools a)) tr.
Proof. reflexivity. Qed.
Lemma fold_bitmap p x :
  set_f_framePool_freeBitmap (to_gpool p) x = to_gpool (mkPool (p_start p) (p_end p) (p_free p) x).
Proof. reflexivity. Qed.
Lemma fold_free p x :
  set_f_framePool_freeCount (to_gpool p) x = to_gpool (mkPool (p_start p) (p_end p) x (p_bitmap p)).
Proof. reflexivity. Qed.

Ltac astep := rewrite ?fold_tr, ?fold_pools, ?fold_reserved, ?fold_bitmap, ?fold_free; asimp.

Lemma length_update_pool : forall ps i p', length (update_pool i p' ps) = length ps.
Proof. induction ps as [|h tl IH]; intros [|i] p'; cbn [update_pool length]; try reflexivity. f_equal. apply IH. Qed.

Lemma nth_update_pool : forall ps i p', (i < length ps)%nat -> nth_error (update_pool i p' ps) i = Some p'.
Proof.
  induction ps as [|h tl IH]; intros [|i] p' H; cbn [length] in H; try lia; [reflexivity|].
  cbn [update_pool nth_error]. apply IH. lia.
Qed.

Lemma update_update : forall ps i p1 p2, update_pool i p2 (update_pool i p1 ps) = update_pool i p2 ps.
Proof. induction ps as [|h tl IH]; intros [|i] p1 p2; cbn [update_pool]; try reflexivity. f_equal. apply IH. Qed.

Lemma pool_for_frame_lt a f i : pool_for_frame a f = Some i -> (i < length (a_pools a))%nat.
Proof.
  intros E. pose proof (BitmapProofs.pool_for_frame_spec a f) as P. rewrite E in P.
  destruct P as (p & Hp & _). apply nth_error_Some. congruence.
Qed.

Lemma gslt_idx_none : gslt 64 (idx_of None) 0 = true.
Proof. reflexivity. Qed.

Lemma gslt_idx_some i : N.of_nat i < two63 -> gslt 64 (idx_of (Some i)) 0 = false.
Proof. intros H. cbn [idx_of]. rewrite gslt_small by (unfold two63 in *; lia). apply N.ltb_ge. lia. Qed.

(** ---- FreeFrame ---- *)
Definition free_err (r : free_result) : option string :=
  match r with
  | FreeNotManaged => Some "errBitmapAllocFrameNotManaged"%string
  | FreeDoubleFree => Some "errBitmapAllocDoubleFree"%string
  | _ => None
  end.

Definition free_res mtx tr (r : balloc * free_result) : gres (go_pmm_BitmapAllocator * option string) :=
  match snd r with
  | FreePanic => GPanic
  | e => GOk (to_ga mtx (fst r) (ev_release :: ev_acquire :: tr), free_err e)
  end.

Theorem freeFrame_is_translation mtx a tr f fuel :
  N.of_nat (length (a_pools a)) < two63 -> (length (a_pools a) < fuel)%nat ->
  go_pmm_BitmapAllocator_FreeFrame fuel (to_ga mtx a tr) f = free_res mtx tr (bitmap_free a f).
Proof.
  intros Hl Hfuel.
  cbv delta [go_pmm_BitmapAllocator_FreeFrame bitmap_free]. cbv beta zeta. astep.
  rewrite poolForFrame_is_translation by exact Hfuel.
  destruct (pool_for_frame a f) as [i|] eqn:Ei.
  2:{ rewrite gslt_idx_none. astep. reflexivity. }
  pose proof (pool_for_frame_lt _ _ _ Ei) as Hi.
  rewrite gslt_idx_some by lia. cbn [idx_of]. astep.
  rewrite !gidxsA_map by exact Hl.
  destruct (nth_error (a_pools a) i) as [p|] eqn:Ep; [|apply nth_error_None in Ep; lia].
  cbn [option_map]. asimp.
  change (gsub 64 f (p_start p)) with (sub64 f (p_start p)).
  set (rel := sub64 f (p_start p)).
  assert (Hrel : rel < two64) by (unfold rel, sub64; apply w64_lt).
  rewrite (mask_eq rel Hrel).
  rewrite nth_errorN_gidx.
  destruct (gidx (p_bitmap p) (N.shiftr rel 6)) as [w|] eqn:Ew; [|reflexivity].
  destruct (N.land w (bit_mask rel) =? 0); [astep; reflexivity|].
  rewrite (gset_set_nth _ _ _ _ Ew). astep.
  rewrite gsetsA_map_update by assumption. astep.
  rewrite !gidxsA_map by (cbn [a_pools]; rewrite length_update_pool; exact Hl).
  cbn [a_pools]. rewrite nth_update_pool by exact Hi. cbn [option_map]. astep.
  rewrite gsetsA_map_update by (rewrite ?length_update_pool; assumption).
  rewrite update_update. astep.
  rewrite dec32_eq. reflexivity.
Qed.

Definition mark_res mtx tr (o : outcome balloc) : gres (go_pmm_BitmapAllocator * unit) :=
  match o with Ok a' => GOk (to_ga mtx a' tr, tt) | Panic => GPanic | Hang => GFuel end.

(** [mark false] is [mark_reserved] of Pmm/Bitmap.v; [mark true] clears the bit and moves the two counters the other
    way (markFree, which no caller in the kernel passes). *)
Definition mark (free : bool) (a : balloc) (pi : option nat) (f : N) : outcome balloc :=
  match pi with
  | None => Ok a
  | Some i =>
      match nth_error (a_pools a) i with
      | None => Panic
      | Some p =>
          if p_end p <? f then Ok a else
          let rel := sub64 f (p_start p) in
          let block := N.shiftr rel 6 in
          match nth_errorN (p_bitmap p) block with
          | None => Panic
          | Some w =>
              let p' := if free
                        then mkPool (p_start p) (p_end p) (inc32 (p_free p)) (set_nth (N.to_nat block) (andnot w (bit_mask rel)) (p_bitmap p))
                        else mkPool (p_start p) (p_end p) (dec32 (p_free p)) (set_nth (N.to_nat block) (N.lor w (bit_mask rel)) (p_bitmap p)) in
              Ok (mkBA (a_total a) (if free then dec32 (a_reserved a) else inc32 (a_reserved a)) (update_pool i p' (a_pools a)))
          end
      end
  end.

Theorem markFrame_is_translation mtx a tr (pi : option nat) f free :
  N.of_nat (length (a_pools a)) < two63 -> (forall i, pi = Some i -> N.of_nat i < two63) ->
  go_pmm_BitmapAllocator_markFrame (to_ga mtx a tr) (idx_of pi) f free = mark_res mtx tr (mark free a pi f).
Proof.
  intros Hl Hpi.
  cbv delta [go_pmm_BitmapAllocator_markFrame mark]. cbv beta zeta. astep.
  destruct pi as [i|]; [|rewrite gslt_idx_none; reflexivity].
  rewrite gslt_idx_some by (apply Hpi; reflexivity). cbn [idx_of].
  rewrite !gidxsA_map by exact Hl.
  destruct (nth_error (a_pools a) i) as [p|] eqn:Ep; [|reflexivity].
  assert (Hi : (i < length (a_pools a))%nat) by (apply nth_error_Some; congruence).
  cbn [option_map]. asimp.
  destruct (p_end p <? f); [reflexivity|].
  change (gsub 64 f (p_start p)) with (sub64 f (p_start p)).
  set (rel := sub64 f (p_start p)).
  assert (Hrel : rel < two64) by (unfold rel, sub64; apply w64_lt).
  rewrite (mask_eq rel Hrel).
  rewrite nth_errorN_gidx.
  destruct (gidx (p_bitmap p) (N.shiftr rel 6)) as [w|] eqn:Ew; [|destruct free; reflexivity].
  (* the two arms of the switch differ in the word operation and the direction of the counters only *)
  destruct free; cbn [Bool.eqb].
  all: rewrite (gset_set_nth _ _ _ _ Ew); astep.
  all: rewrite gsetsA_map_update by assumption; astep.
  all: rewrite !gidxsA_map by (cbn [a_pools]; rewrite length_update_pool; exact Hl).
  all: cbn [a_pools]; rewrite nth_update_pool by exact Hi; cbn [option_map]; astep.
  all: rewrite gsetsA_map_update by (rewrite ?length_update_pool; assumption).
  all: rewrite update_update; astep.
  all: rewrite dec32_eq; reflexivity.
Qed.

Theorem markFrame_reserved_is_translation mtx a tr (pi : option nat) f :
  N.of_nat (length (a_pools a)) < two63 -> (forall i, pi = Some i -> N.of_nat i < two63) ->
  go_pmm_BitmapAllocator_markFrame (to_ga mtx a tr) (idx_of pi) f false = mark_res mtx tr (mark_reserved a pi f).
Proof. exact (fun Hl Hpi => markFrame_is_translation mtx a tr pi f false Hl Hpi). Qed.

(** ---- AllocFrame ---- *)
Lemma w64_idem3 x off : gw 64 (gw 64 (gw 64 x + off)) = w64 (x + off).
Proof.
  change (gw 64) with w64. unfold w64, two64.
  rewrite N.mod_mod by discriminate. apply N.add_mod_idemp_l. discriminate.
Qed.

Lemma nth_error_Some_lt {A} (l : list A) k x : nth_error l k = Some x -> (k < length l)%nat.
Proof. intros E. apply nth_error_Some. congruence. Qed.

Lemma firstn_S_nth_error {A} : forall k (l : list A) x, nth_error l k = Some x -> firstn (S k) l = firstn k l ++ [x].
Proof.
  induction k as [|k IH]; intros [|y l] x E; try discriminate.
  - injection E as ->. reflexivity.
  - cbn [nth_error] in E. cbn [firstn app]. f_equal. apply IH. exact E.
Qed.

Definition alloc_res mtx tr (r : balloc * option N) : gres (go_pmm_BitmapAllocator * (N * option string)) :=
  match snd r with
  | Some f => GOk (to_ga mtx (fst r) (ev_release :: ev_acquire :: tr), (f, None))
  | None => GOk (to_ga mtx (fst r) (ev_release :: ev_acquire :: tr), (mm_InvalidFrame, Some "errBitmapAllocOutOfMemory"%string))
  end.

Theorem allocFrame_is_translation mtx a tr fuel :
  N.of_nat (length (a_pools a)) < two63 ->
  (forall p, In p (a_pools a) -> N.of_nat (length (p_bitmap p)) < two63 /\ (length (p_bitmap p) < fuel)%nat) ->
  (length (a_pools a) < fuel)%nat -> (64 < fuel)%nat ->
  go_pmm_BitmapAllocator_AllocFrame fuel (to_ga mtx a tr) = alloc_res mtx tr (bitmap_alloc a).
Proof.
  intros Hl Hbm Hfuel H64.
  cbv delta [go_pmm_BitmapAllocator_AllocFrame]. cbv beta zeta. astep.
  match goal with |- context [gloop fuel ?f0 _] => set (stepA := f0) end.
  set (G := to_ga mtx a (GEv "Acquire" [] :: tr)).
  set (SUCC := fun (k : nat) (p' : pool) (f : N) =>
         (to_ga mtx (mkBA (a_total a) (inc32 (a_reserved a)) (update_pool k p' (a_pools a)))
                (ev_release :: ev_acquire :: tr), (f, @None string))).
  (* one iteration of the loop over the pools = try_pool *)
  assert (Row : forall k p, nth_error (a_pools a) k = Some p ->
            stepA (G, N.of_nat k) =
            match try_pool p with
            | Some (f, p') => GOk (GRet (SUCC k p' f))
            | None => GOk (GNext (G, N.of_nat (S k)))
            end).
  { intros k p Ep.
    assert (Hk : (k < length (a_pools a))%nat) by (apply nth_error_Some; congruence).
    destruct (Hbm p (nth_error_In _ _ Ep)) as (Hb63 & Hbf).
    unfold stepA. cbv beta iota zeta. unfold G. asimp. rewrite glenA_map.
    rewrite gslt_small by (unfold two63 in *; lia).
    destruct (N.ltb_spec (N.of_nat k) (N.of_nat (length (a_pools a)))); [|lia].
    rewrite !gidxsA_map by exact Hl. rewrite Ep. cbn [option_map]. asimp.
    unfold try_pool.
    rewrite (gw64_small' (N.of_nat k + 1)) by (unfold two63 in Hl; change (2 ^ 64) with 18446744073709551616; change (2 ^ 63) with 9223372036854775808 in Hl; lia).
    replace (N.of_nat k + 1) with (N.of_nat (S k)) by lia.
    destruct (p_free p =? 0); [reflexivity|].
    match goal with |- context [gloop fuel ?f0 _] => set (stepB := f0) end.
    (* the loop over the words of the pool's bitmap = scan_blocks *)
    assert (LB : forall n j fu, (j + n = length (p_bitmap p))%nat -> (n < fu)%nat ->
              gloop fu stepB (G, N.of_nat j) =
              match scan_blocks (N.of_nat j) (skipn j (p_bitmap p)) with
              | Some (bi, off, mask) =>
                  GOk (inr (SUCC k (mkPool (p_start p) (p_end p) (dec32 (p_free p))
                                       (set_nth (N.to_nat bi) (N.lor (nth (N.to_nat bi) (p_bitmap p) 0) mask) (p_bitmap p)))
                                   (w64 (p_start p + w64 (N.shiftl bi 6 + off)))))
              | None => GOk (inl (G, N.of_nat (length (p_bitmap p))))
              end).
    { induction n as [|n IH]; intros j fu Hj Hfu; (destruct fu as [|fu]; [lia|]).
      - rewrite skipn_all2 by lia. cbn [scan_blocks].
        rewrite gloop_break with (s' := (G, N.of_nat j)); [repeat f_equal; lia|].
        unfold stepB, glen. destruct (N.ltb_spec (N.of_nat j) (N.of_nat (length (p_bitmap p)))); [lia|reflexivity].
      - destruct (nth_error (p_bitmap p) j) as [w|] eqn:Ew; [|apply nth_error_None in Ew; lia].
        rewrite (skipn_nth_error_cons _ _ _ Ew). cbn [scan_blocks].
        rewrite gloop_S. unfold stepB at 1. cbv beta iota zeta. unfold glen, G. asimp.
        destruct (N.ltb_spec (N.of_nat j) (N.of_nat (length (p_bitmap p)))); [|lia].
        rewrite !gidxsA_map by exact Hl. rewrite Ep. cbn [option_map]. asimp.
        unfold gidx at 1. rewrite Nat2N.id, Ew.
        change (gw 64 18446744073709551615) with max64.
        replace (N.of_nat j + 1) with (N.of_nat (S j)) by lia.
        destruct (w =? max64); [apply IH; lia|].
        match goal with |- context [gloop fuel ?f0 _] => set (stepC := f0) end.
        (* the scan of one word = scan_bits *)
        assert (LC : forall m off mask fu', mask < 2 ^ N.of_nat m -> off + N.of_nat m <= 64 -> (m < fu')%nat ->
                  match scan_bits m off mask w with
                  | Some (o', m') =>
                      gloop fu' stepC (G, off, mask) =
                      GOk (inr (SUCC k (mkPool (p_start p) (p_end p) (dec32 (p_free p))
                                          (set_nth j (N.lor w m') (p_bitmap p)))
                                      (w64 (p_start p + w64 (N.shiftl (N.of_nat j) 6 + o')))))
                  | None => exists o' m', gloop fu' stepC (G, off, mask) = GOk (inl (G, o', m'))
                  end).
        { assert (Hw : gidx (p_bitmap p) (N.of_nat j) = Some w) by (unfold gidx; rewrite Nat2N.id; exact Ew).
          assert (Hj63 : N.of_nat j < two63) by (apply nth_error_Some_lt in Ew; lia).
          induction m as [|m IHm]; intros off mask fu' Hm Ho Hfu'; (destruct fu' as [|fu']; [lia|]).
          - cbn [scan_bits]. exists off, mask. apply gloop_break. unfold stepC.
            assert (mask = 0) by (cbn [N.of_nat N.pow] in Hm; lia). subst mask. reflexivity.
          - cbn [scan_bits]. destruct (N.eqb_spec mask 0) as [->|Hm0].
            { exists off, 0. apply gloop_break. reflexivity. }
            assert (Step0 : (0 <? mask) = true) by (apply N.ltb_lt; lia).
            destruct (N.land w mask =? 0) eqn:Eland.
            + (* a clear bit: take it *)
              rewrite gloop_S. unfold stepC at 1. cbv beta iota zeta. rewrite Step0, Eland. cbn [negb].
              unfold G. asimp.
              rewrite !gidxsA_map by exact Hl. rewrite Ep. cbn [option_map]. astep.
              rewrite gsetsA_map_update by assumption. astep.
              rewrite !gidxsA_map by (cbn [a_pools]; rewrite length_update_pool; exact Hl).
              cbn [a_pools]. rewrite nth_update_pool by exact Hk. cbn [option_map]. astep.
              rewrite gidxs_small by exact Hj63. rewrite Hw.
              rewrite gsets_small by exact Hj63. rewrite (gset_set_nth _ _ _ _ Hw). rewrite Nat2N.id. astep.
              rewrite gsetsA_map_update by (rewrite ?length_update_pool; assumption).
              rewrite update_update. astep.
              rewrite !gidxsA_map by (cbn [a_pools]; rewrite length_update_pool; exact Hl).
              cbn [a_pools]. rewrite nth_update_pool by exact Hk. cbn [option_map]. asimp.
              rewrite w64_idem3, dec32_eq. reflexivity.
            + (* next bit *)
              assert (Hsh : N.shiftr mask 1 < 2 ^ N.of_nat m).
              { rewrite N.shiftr_div_pow2. change (2 ^ 1) with 2.
                replace (N.of_nat (S m)) with (N.of_nat m + 1) in Hm by lia. rewrite N.pow_add_r in Hm. change (2 ^ 1) with 2 in Hm.
                apply N.div_lt_upper_bound; lia. }
              assert (StepN : stepC (G, off, mask) = GOk (GNext (G, off + 1, N.shiftr mask 1))).
              { unfold stepC. rewrite Step0, Eland. cbn [negb].
                rewrite gw64_small' by (change (2 ^ 64) with 18446744073709551616; lia). reflexivity. }
              specialize (IHm (off + 1) (N.shiftr mask 1) fu' Hsh ltac:(lia) ltac:(lia)).
              destruct (scan_bits m (off + 1) (N.shiftr mask 1) w) as [[o' m']|].
              * rewrite (gloop_next _ _ _ _ StepN). exact IHm.
              * destruct IHm as (o' & m' & IHm). exists o', m'. rewrite (gloop_next _ _ _ _ StepN). exact IHm. }
        change (gw 64 0) with 0. change (gw 64 (N.shiftl 1 63)) with (N.shiftl 1 63).
        fold G.
        specialize (LC 64%nat 0 (N.shiftl 1 63) fuel ltac:(reflexivity) ltac:(reflexivity) H64).
        destruct (scan_bits 64 0 (N.shiftl 1 63) w) as [[o' m']|].
        * rewrite LC. cbv iota beta. rewrite Nat2N.id.
          replace (nth j (p_bitmap p) 0) with w by (symmetry; apply nth_error_nth; exact Ew). reflexivity.
        * destruct LC as (o' & m' & LC). rewrite LC. cbv iota beta.
          apply IH; lia. }
    fold G. change (gloop fuel stepB (G, 0)) with (gloop fuel stepB (G, N.of_nat 0)).
    rewrite (LB (length (p_bitmap p)) 0%nat fuel eq_refl Hbf). cbn [skipn N.of_nat].
    destruct (scan_blocks 0 (p_bitmap p)) as [[[bi off] mask]|]; reflexivity. }
  (* the loop over the pools = alloc_pools *)
  assert (LA : forall n k fu, (k + n = length (a_pools a))%nat -> (n < fu)%nat ->
            gloop fu stepA (G, N.of_nat k) =
            match alloc_pools (skipn k (a_pools a)) with
            | Some (f, rest') =>
                GOk (inr (to_ga mtx (mkBA (a_total a) (inc32 (a_reserved a)) (firstn k (a_pools a) ++ rest'))
                                (ev_release :: ev_acquire :: tr), (f, @None string)))
            | None => GOk (inl (G, N.of_nat (length (a_pools a))))
            end).
  { induction n as [|n IH]; intros k fu Hk Hfu; (destruct fu as [|fu]; [lia|]).
    - rewrite skipn_all2 by lia. cbn [alloc_pools].
      rewrite gloop_break with (s' := (G, N.of_nat k)); [repeat f_equal; lia|].
      unfold stepA, G. asimp. rewrite glenA_map. rewrite gslt_small by (unfold two63 in *; lia).
      destruct (N.ltb_spec (N.of_nat k) (N.of_nat (length (a_pools a)))); [lia|reflexivity].
    - destruct (nth_error (a_pools a) k) as [p|] eqn:Ep; [|apply nth_error_None in Ep; lia].
      rewrite (skipn_nth_error_cons _ _ _ Ep). cbn [alloc_pools].
      rewrite gloop_S, (Row k p Ep).
      destruct (try_pool p) as [[f p']|].
      + unfold SUCC. rewrite update_pool_firstn_skipn by lia. reflexivity.
      + rewrite (IH (S k) fu ltac:(lia) ltac:(lia)).
        destruct (alloc_pools (skipn (S k) (a_pools a))) as [[f rest']|]; [|reflexivity].
        rewrite (firstn_S_nth_error _ _ _ Ep), <- app_assoc. reflexivity. }
  change (gw 64 0) with (N.of_nat 0).
  rewrite (LA (length (a_pools a)) 0%nat fuel eq_refl Hfuel). cbn [skipn firstn app].
  unfold bitmap_alloc.
  destruct (alloc_pools (a_pools a)) as [[f ps]|]; [reflexivity|].
  cbv iota beta. unfold G. astep. reflexivity.
Qed.

(** FreeFrame / AllocFrame with [free_res] / [alloc_res] unfolded (the form stated in Props/C03_trans.v) *)
Theorem freeFrame_is_translation_explicit mtx a tr f fuel :
  N.of_nat (length (a_pools a)) < 2 ^ 63 -> (length (a_pools a) < fuel)%nat ->
  go_pmm_BitmapAllocator_FreeFrame fuel (to_ga mtx a tr) f =
  match bitmap_free a f with
  | (_, FreePanic) => GPanic
  | (a', r) =>
      GOk (to_ga mtx a' (GEv "Release" [] :: GEv "Acquire" [] :: tr),
           match r with
           | FreeNotManaged => Some "errBitmapAllocFrameNotManaged"%string
           | FreeDoubleFree => Some "errBitmapAllocDoubleFree"%string
           | _ => None
           end)
  end.
Proof.
  intros H1 H2. rewrite (freeFrame_is_translation mtx a tr f fuel H1 H2).
  unfold free_res. destruct (bitmap_free a f) as [a' r]. destruct r; reflexivity.
Qed.

Theorem allocFrame_is_translation_explicit mtx a tr fuel :
  N.of_nat (length (a_pools a)) < 2 ^ 63 ->
  (forall p, In p (a_pools a) -> N.of_nat (length (p_bitmap p)) < 2 ^ 63 /\ (length (p_bitmap p) < fuel)%nat) ->
  (length (a_pools a) < fuel)%nat -> (64 < fuel)%nat ->
  go_pmm_BitmapAllocator_AllocFrame fuel (to_ga mtx a tr) =
  match bitmap_alloc a with
  | (a', Some f) => GOk (to_ga mtx a' (GEv "Release" [] :: GEv "Acquire" [] :: tr), (f, None))
  | (a', None) =>
      GOk (to_ga mtx a' (GEv "Release" [] :: GEv "Acquire" [] :: tr),
           (mm_InvalidFrame, Some "errBitmapAllocOutOfMemory"%string))
  end.
Proof.
  intros H1 H2 H3 H4. rewrite (allocFrame_is_translation mtx a tr fuel H1 H2 H3 H4).
  unfold alloc_res. destruct (bitmap_alloc a) as [a' [f|]]; reflexivity.
Qed.
