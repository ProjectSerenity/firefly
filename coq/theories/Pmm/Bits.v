(** Bit-level lemmas for the bitmap allocator proofs (C01/C03): big-endian bit numbering inside
    64-bit words, setting / clearing / testing one bit, and the first-clear-bit scan. *)
From Coq Require Import NArith ZArith Lia List Bool.
From Coq Require Import ZifyBool ZifyN ZifyNat.
From FF Require Import Lib.Word Gen.Consts_mm_pmm Pmm.Boot Pmm.Bitmap.
Import ListNotations.
Local Open Scope N_scope.

(** bit [i] of a bitmap: word [i/64], bit [63 - i mod 64] *)
Definition bitf (ws : list N) (i : N) : bool :=
  N.testbit (nth (N.to_nat (i / 64)) ws 0) (63 - i mod 64).

(** number of clear bits among the first [n] *)
Fixpoint cnt (f : N -> bool) (n : nat) : N :=
  match n with
  | O => 0
  | S k => cnt f k + (if f (N.of_nat k) then 0 else 1)
  end.

Lemma bit_mask_eq rel : bit_mask rel = 2 ^ (63 - rel mod 64).
Proof.
  unfold bit_mask. rewrite N.shiftl_1_l, N.shiftr_div_pow2, N.shiftl_mul_pow2.
  change (2 ^ 6) with 64. f_equal. lia.
Qed.

Lemma land_pow2_eq0 w k : (N.land w (2 ^ k) =? 0) = negb (N.testbit w k).
Proof.
  destruct (N.testbit w k) eqn:E; cbn.
  - apply N.eqb_neq. intros H.
    assert (T: N.testbit (N.land w (2 ^ k)) k = true) by (rewrite N.land_spec, E, N.pow2_bits_true; reflexivity).
    rewrite H in T. rewrite N.bits_0 in T. discriminate.
  - apply N.eqb_eq. apply N.bits_inj_0. intros j. rewrite N.land_spec, N.pow2_bits_eqb.
    destruct (N.eqb_spec k j) as [->|]; [rewrite E; reflexivity|apply andb_false_r].
Qed.

(** ---- lists of words ---- *)
Lemma nth_set_nth : forall (l : list N) i j w d,
  nth j (set_nth i w l) d = if (Nat.eqb j i && Nat.ltb i (length l))%bool then w else nth j l d.
Proof.
  induction l as [|h t IH]; intros i j w d.
  - cbn. destruct i, j; cbn; try reflexivity; rewrite andb_false_r; reflexivity.
  - destruct i as [|i], j as [|j]; cbn [set_nth nth length]; try reflexivity.
    rewrite IH. reflexivity.
Qed.

Lemma length_set_nth : forall (l : list N) i w, length (set_nth i w l) = length l.
Proof. induction l as [|h t IH]; intros [|i] w; cbn; auto. Qed.

Lemma nth_errorN_some {A} (l : list A) (i : N) (x : A) :
  nth_errorN l i = Some x -> i < N.of_nat (length l) /\ nth_error l (N.to_nat i) = Some x.
Proof.
  unfold nth_errorN. destruct (N.ltb_spec i (N.of_nat (length l))); [auto|discriminate].
Qed.

Lemma nth_errorN_lt {A} (l : list A) (i : N) :
  i < N.of_nat (length l) -> exists x, nth_errorN l i = Some x.
Proof.
  intros H. unfold nth_errorN. destruct (N.ltb_spec i (N.of_nat (length l))); [|lia].
  destruct (nth_error l (N.to_nat i)) eqn:E; [eauto|].
  apply nth_error_None in E. lia.
Qed.

(** ---- one bit set / cleared ---- *)
Lemma bitf_set ws i w :
  i / 64 < N.of_nat (length ws) ->
  nth (N.to_nat (i / 64)) ws 0 = w ->
  forall j, bitf (set_nth (N.to_nat (i / 64)) (N.lor w (2 ^ (63 - i mod 64))) ws) j = bitf ws j || (j =? i).
Proof.
  intros Hlen Hw j. unfold bitf. rewrite nth_set_nth.
  destruct (Nat.eqb_spec (N.to_nat (j / 64)) (N.to_nat (i / 64))) as [E|E]; cbn [andb].
  - assert (Hlt: Nat.ltb (N.to_nat (i / 64)) (length ws) = true) by (apply Nat.ltb_lt; lia).
    rewrite Hlt. rewrite N.lor_spec, N.pow2_bits_eqb. rewrite E, Hw.
    f_equal. assert (j / 64 = i / 64) by lia.
    destruct (N.eqb_spec j i) as [->|Hne]; [apply N.eqb_refl|].
    apply N.eqb_neq. lia.
  - destruct (N.eqb_spec j i) as [->|Hne]; [contradiction|]. rewrite orb_false_r. reflexivity.
Qed.

Lemma bitf_clear ws i w :
  i / 64 < N.of_nat (length ws) ->
  nth (N.to_nat (i / 64)) ws 0 = w ->
  forall j, bitf (set_nth (N.to_nat (i / 64)) (andnot w (2 ^ (63 - i mod 64))) ws) j = bitf ws j && negb (j =? i).
Proof.
  intros Hlen Hw j. unfold bitf, andnot. rewrite nth_set_nth.
  destruct (Nat.eqb_spec (N.to_nat (j / 64)) (N.to_nat (i / 64))) as [E|E]; cbn [andb].
  - assert (Hlt: Nat.ltb (N.to_nat (i / 64)) (length ws) = true) by (apply Nat.ltb_lt; lia).
    rewrite Hlt. rewrite N.ldiff_spec, N.pow2_bits_eqb. rewrite E, Hw.
    f_equal. f_equal. assert (j / 64 = i / 64) by lia.
    destruct (N.eqb_spec j i) as [->|Hne]; [apply N.eqb_refl|].
    apply N.eqb_neq. lia.
  - destruct (N.eqb_spec j i) as [->|Hne]; [contradiction|]. rewrite andb_true_r. reflexivity.
Qed.

Lemma bitf_test ws i w :
  nth (N.to_nat (i / 64)) ws 0 = w ->
  (N.land w (2 ^ (63 - i mod 64)) =? 0) = negb (bitf ws i).
Proof. intros Hw. rewrite land_pow2_eq0. unfold bitf. rewrite Hw. reflexivity. Qed.

(** ---- counting ---- *)
Lemma cnt_ext f g n : (forall i, i < N.of_nat n -> f i = g i) -> cnt f n = cnt g n.
Proof.
  induction n as [|n IH]; intros H; cbn [cnt]; [reflexivity|].
  rewrite IH by (intros; apply H; lia). rewrite H by lia. reflexivity.
Qed.

Lemma cnt_le f n : cnt f n <= N.of_nat n.
Proof. induction n as [|n IH]; cbn [cnt]; [lia|]. destruct (f (N.of_nat n)); lia. Qed.

Lemma cnt_pos f n i : i < N.of_nat n -> f i = false -> 1 <= cnt f n.
Proof.
  induction n as [|n IH]; intros Hi Hf; [lia|]. cbn [cnt].
  destruct (N.eq_dec i (N.of_nat n)) as [->|Hne]; [rewrite Hf; lia|].
  assert (1 <= cnt f n) by (apply IH; [lia|assumption]). lia.
Qed.

Lemma cnt_zero f n : cnt f n = 0 -> forall i, i < N.of_nat n -> f i = true.
Proof.
  intros H i Hi. destruct (f i) eqn:E; [reflexivity|].
  pose proof (cnt_pos f n i Hi E). lia.
Qed.

Lemma cnt_exists f n : 1 <= cnt f n -> exists i, i < N.of_nat n /\ f i = false.
Proof.
  induction n as [|n IH]; cbn [cnt]; intros H; [lia|].
  destruct (f (N.of_nat n)) eqn:E.
  - destruct IH as (i & Hi & Hf); [lia|]. exists i. split; [lia|assumption].
  - exists (N.of_nat n). split; [lia|assumption].
Qed.

Lemma cnt_change f g n i :
  i < N.of_nat n -> (forall j, j <> i -> g j = f j) ->
  cnt g n + (if g i then 1 else 0) = cnt f n + (if f i then 1 else 0).
Proof.
  induction n as [|n IH]; intros Hi Hg; [lia|]. cbn [cnt].
  destruct (N.eq_dec i (N.of_nat n)) as [->|Hne].
  - rewrite (cnt_ext g f n) by (intros; apply Hg; lia). destruct (f (N.of_nat n)), (g (N.of_nat n)); lia.
  - rewrite (Hg (N.of_nat n)) by lia. specialize (IH ltac:(lia) Hg). lia.
Qed.

(** ---- the first-clear-bit scan ---- *)
Lemma scan_bits_spec w : forall fuel off,
  off <= 64 -> 64 <= off + N.of_nat fuel ->
  match scan_bits fuel off (if off <? 64 then 2 ^ (63 - off) else 0) w with
  | Some (o, mk) =>
      off <= o < 64 /\ mk = 2 ^ (63 - o) /\ N.testbit w (63 - o) = false /\
      (forall j, off <= j < o -> N.testbit w (63 - j) = true)
  | None => forall j, off <= j < 64 -> N.testbit w (63 - j) = true
  end.
Proof.
  induction fuel as [|fuel IH]; intros off Hoff Hfuel.
  - cbn. intros j Hj. lia.
  - cbn [scan_bits]. destruct (N.ltb_spec off 64) as [Hlt|Hge].
    + assert (Hnz: (2 ^ (63 - off) =? 0) = false) by (apply N.eqb_neq; apply N.pow_nonzero; discriminate).
      rewrite Hnz. rewrite land_pow2_eq0.
      destruct (N.testbit w (63 - off)) eqn:Eb; cbn [negb].
      * assert (Hm: N.shiftr (2 ^ (63 - off)) 1 = if off + 1 <? 64 then 2 ^ (63 - (off + 1)) else 0).
        { rewrite N.shiftr_div_pow2. destruct (N.ltb_spec (off + 1) 64).
          - replace (63 - off) with (N.succ (63 - (off + 1))) by lia. rewrite N.pow_succ_r'. change (2 ^ 1) with 2.
            rewrite N.mul_comm, N.div_mul by discriminate. reflexivity.
          - replace (63 - off) with 0 by lia. reflexivity. }
        rewrite Hm. specialize (IH (off + 1) ltac:(lia) ltac:(lia)).
        destruct (scan_bits fuel (off + 1) (if off + 1 <? 64 then 2 ^ (63 - (off + 1)) else 0) w) as [[o mk]|].
        -- destruct IH as (H1 & H2 & H3 & H4). repeat split; try lia; try assumption.
           intros j Hj. destruct (N.eq_dec j off) as [->|]; [assumption|apply H4; lia].
        -- intros j Hj. destruct (N.eq_dec j off) as [->|]; [assumption|apply IH; lia].
      * repeat split; try lia; try assumption.
    + cbn. intros j Hj. lia.
Qed.

Lemma testbit_max64 j : j < 64 -> N.testbit max64 j = true.
Proof. intros H. change max64 with (N.ones 64). apply N.ones_spec_low. exact H. Qed.

(** [scan_blocks] finds the lowest clear bit of the bitmap (in [bitf] numbering relative to the
    first word of [ws]), or reports that every bit of every word is set. *)
Lemma scan_blocks_spec : forall ws idx,
  match scan_blocks idx ws with
  | Some (b, o, mk) =>
      idx <= b /\ b - idx < N.of_nat (length ws) /\ o < 64 /\ mk = 2 ^ (63 - o) /\
      bitf ws ((b - idx) * 64 + o) = false /\
      (forall i, i < (b - idx) * 64 + o -> bitf ws i = true)
  | None => forall i, i < N.of_nat (length ws) * 64 -> bitf ws i = true
  end.
Proof.
  induction ws as [|w rest IH]; intros idx; cbn [scan_blocks].
  - cbn. intros i Hi. lia.
  - assert (Hcons: forall i, 64 <= i -> bitf (w :: rest) i = bitf rest (i - 64)).
    { intros i Hi. unfold bitf. replace (i / 64) with (N.succ ((i - 64) / 64)) by lia.
      rewrite N2Nat.inj_succ. cbn [nth]. f_equal. lia. }
    assert (Hhead: forall i, i < 64 -> bitf (w :: rest) i = N.testbit w (63 - i)).
    { intros i Hi. unfold bitf. replace (i / 64) with 0 by lia. cbn [N.to_nat nth]. f_equal. lia. }
    assert (Hrest: match scan_blocks (idx + 1) rest with
      | Some (b, o, mk) =>
          (forall i, i < 64 -> bitf (w :: rest) i = true) ->
          idx <= b /\ b - idx < N.of_nat (length (w :: rest)) /\ o < 64 /\ mk = 2 ^ (63 - o) /\
          bitf (w :: rest) ((b - idx) * 64 + o) = false /\
          (forall i, i < (b - idx) * 64 + o -> bitf (w :: rest) i = true)
      | None => (forall i, i < 64 -> bitf (w :: rest) i = true) ->
                forall i, i < N.of_nat (length (w :: rest)) * 64 -> bitf (w :: rest) i = true
      end).
    { specialize (IH (idx + 1)). destruct (scan_blocks (idx + 1) rest) as [[[b o] mk]|].
      - destruct IH as (H1 & H2 & H3 & H4 & H5 & H6). intros Hall.
        cbn [length]. repeat split; try lia; try assumption.
        + rewrite Hcons by lia. replace ((b - idx) * 64 + o - 64) with ((b - (idx + 1)) * 64 + o) by lia. assumption.
        + intros i Hi. destruct (N.ltb_spec i 64); [apply Hall; assumption|].
          rewrite Hcons by lia. apply H6. lia.
      - intros Hall i Hi. cbn [length] in Hi. destruct (N.ltb_spec i 64); [apply Hall; assumption|].
        rewrite Hcons by lia. apply IH. lia. }
    destruct (N.eqb_spec w max64) as [->|Hne].
    + destruct (scan_blocks (idx + 1) rest) as [[[b o] mk]|]; apply Hrest;
        intros i Hi; rewrite Hhead by assumption; apply testbit_max64; lia.
    + pose proof (scan_bits_spec w 64 0 ltac:(lia) ltac:(cbn; lia)) as S.
      change (if 0 <? 64 then 2 ^ (63 - 0) else 0) with (N.shiftl 1 63) in S.
      destruct (scan_bits 64 0 (N.shiftl 1 63) w) as [[o mk]|].
      * destruct S as (H1 & H2 & H3 & H4). cbn [length].
        replace (idx - idx) with 0 by lia. repeat split; try lia; try assumption.
        -- cbn [N.mul N.add]. rewrite Hhead by lia. assumption.
        -- intros i Hi. rewrite Hhead by lia. apply H4. lia.
      * destruct (scan_blocks (idx + 1) rest) as [[[b o] mk]|]; apply Hrest;
          intros i Hi; rewrite Hhead by assumption; apply S; lia.
Qed.
