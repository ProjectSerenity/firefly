(** Histories of AllocFrame / FreeFrame calls from any state that satisfies the representation
    invariant (C01/C03). The set of frames held by callers is a ghost list [H]. *)
From Coq Require Import NArith ZArith Lia List Bool Sorted.
From Coq Require Import ZifyBool ZifyN ZifyNat.
From FF Require Import Lib.Word Gen.Consts_mm_pmm Pmm.Boot Pmm.BootProofs Pmm.Bitmap Pmm.Bits Pmm.BitmapProofs.
Import ListNotations.
Local Open Scope N_scope.

Definition memb (f : N) (H : list N) : bool := existsb (N.eqb f) H.

Lemma memb_In f H : memb f H = true <-> In f H.
Proof.
  unfold memb. rewrite existsb_exists. split.
  - intros (x & Hin & E). apply N.eqb_eq in E. subst. assumption.
  - intros Hin. exists f. split; [assumption|apply N.eqb_refl].
Qed.

Lemma memb_false f H : memb f H = false <-> ~ In f H.
Proof. rewrite <- memb_In. symmetry. apply not_true_iff_false. Qed.

(** reserved = reserved at initialisation ([R0]: kernel image, early-boot frames) or held *)
Definition RH (R0 : N -> bool) (H : list N) : N -> bool := fun g => R0 g || memb g H.

Lemma memb_remove f g H : g <> f -> memb g (remove N.eq_dec f H) = memb g H.
Proof.
  intros Hne. unfold memb. induction H as [|h H IH]; cbn; [reflexivity|].
  destruct (N.eq_dec f h) as [E|Hfh].
  - subst h. rewrite IH. destruct (N.eqb_spec g f); [contradiction|reflexivity].
  - cbn. rewrite IH. reflexivity.
Qed.

Lemma length_remove_nodup f H : NoDup H -> In f H -> S (length (remove N.eq_dec f H)) = length H.
Proof.
  induction H as [|h H IH]; intros Hnd Hin; [destruct Hin|].
  inversion Hnd as [|? ? Hnot Hnd']; subst. cbn.
  destruct (N.eq_dec f h) as [E|Hne].
  - subst h. rewrite notin_remove by assumption. reflexivity.
  - cbn. destruct Hin as [E|Hin]; [congruence|]. rewrite IH by assumption. reflexivity.
Qed.

Lemma nodup_remove f H : NoDup H -> NoDup (remove N.eq_dec f H).
Proof.
  induction H as [|h H IH]; intros Hnd; cbn; [constructor|].
  inversion Hnd as [|? ? Hnot Hnd']; subst.
  destruct (N.eq_dec f h); [apply IH; assumption|].
  constructor; [|apply IH; assumption]. intros Hin. apply in_remove in Hin. apply Hnot. apply Hin.
Qed.

(** the histories the properties quantify over: any allocation, any free except a free of a
    managed frame that was reserved at initialisation and never handed to a caller *)
Definition op_ok (rs : list (N * N)) (R0 : N -> bool) (o : op) : Prop :=
  match o with
  | OpAlloc => True
  | OpFree f => in_ranges rs f -> R0 f = false
  end.

(** What every step of a history guarantees ([a]: state before the step, [H]: frames held before
    the step; [T]: total frames; [r0]: frames reserved at initialisation). *)
Fixpoint trace_ok (rs : list (N * N)) (R0 : N -> bool) (T r0 : N) (a : balloc) (H : list N)
         (tr : list (res * balloc)) (ops : list op) : Prop :=
  match ops, tr with
  | [], [] => True
  | OpAlloc :: ops', (RAlloc (Some f), a') :: tr' =>
      in_ranges rs f /\ R0 f = false /\ ~ In f H /\
      (forall g, in_ranges rs g -> R0 g = false -> ~ In g H -> f <= g) /\
      a_total a' = T /\ a_reserved a' = r0 + N.of_nat (length H) + 1 /\ a_reserved a' <= T /\
      trace_ok rs R0 T r0 a' (f :: H) tr' ops'
  | OpAlloc :: ops', (RAlloc None, a') :: tr' =>
      a' = a /\ (forall g, in_ranges rs g -> R0 g = false -> In g H) /\
      a_total a = T /\ a_reserved a = T /\
      trace_ok rs R0 T r0 a' H tr' ops'
  | OpFree f :: ops', (RFree FreeOk, a') :: tr' =>
      In f H /\ a_total a' = T /\ a_reserved a' + 1 = r0 + N.of_nat (length H) /\
      trace_ok rs R0 T r0 a' (remove N.eq_dec f H) tr' ops'
  | OpFree f :: ops', (RFree FreeNotManaged, a') :: tr' =>
      a' = a /\ ~ in_ranges rs f /\
      trace_ok rs R0 T r0 a' H tr' ops'
  | OpFree f :: ops', (RFree FreeDoubleFree, a') :: tr' =>
      a' = a /\ in_ranges rs f /\ R0 f = false /\ ~ In f H /\
      trace_ok rs R0 T r0 a' H tr' ops'
  | _, _ => False
  end.

Definition held_ok (rs : list (N * N)) (R0 : N -> bool) (H : list N) : Prop :=
  NoDup H /\ forall f, In f H -> in_ranges rs f /\ R0 f = false.

Lemma run_trace_ok rs R0 T r0 : forall ops a H,
  Inv (RH R0 H) a -> held_ok rs R0 H ->
  ranges (a_pools a) = rs -> a_total a = T -> a_reserved a = r0 + N.of_nat (length H) ->
  Forall (op_ok rs R0) ops ->
  trace_ok rs R0 T r0 a H (run a ops) ops.
Proof.
  induction ops as [|o ops IH]; intros a H Hinv [Hnd Hheld] Hrs HT Hres Hops; cbn [run trace_ok]; [exact I|].
  inversion Hops as [|? ? Hop Hops']; subst.
  destruct o as [|f]; cbn [step].
  - pose proof (bitmap_alloc_spec (RH R0 H) a Hinv) as S.
    destruct (bitmap_alloc a) as [a' [f|]].
    + destruct S as (Hm & HR & Hinv' & Hr & Ht & Hrsv & Hlow).
      apply managed_ranges in Hm. unfold RH in HR. apply orb_false_iff in HR. destruct HR as [HR0 HRm].
      apply memb_false in HRm.
      cbn [trace_ok]. split; [assumption|]. split; [assumption|]. split; [assumption|].
      split.
      { intros g Hg Hg0 HgH. apply Hlow; [apply managed_ranges; assumption|].
        unfold RH. rewrite Hg0. apply memb_false in HgH. rewrite HgH. reflexivity. }
      split; [assumption|]. split; [lia|].
      split; [destruct Hinv' as (_ & _ & _ & _ & Hle'); lia|].
      apply IH; try assumption.
      * apply (Inv_ext (upd (RH R0 H) f true)); [|assumption].
        intros g. unfold upd, RH. cbn [memb existsb]. fold (memb g H).
        destruct (N.eqb_spec g f) as [->|Hne]; [rewrite orb_true_r; reflexivity|reflexivity].
      * split; [constructor; assumption|]. intros g [<-|Hg]; [split; assumption|apply Hheld; assumption].
      * cbn [length]. lia.
    + destruct S as (-> & Hfull & Hall). cbn [trace_ok].
      split; [reflexivity|]. split.
      { intros g Hg Hg0. specialize (Hall g ltac:(apply managed_ranges; assumption)).
        unfold RH in Hall. rewrite Hg0 in Hall. cbn in Hall. apply memb_In. assumption. }
      split; [reflexivity|]. split; [lia|].
      apply IH; try assumption; try reflexivity. split; assumption.
  - pose proof (bitmap_free_spec (RH R0 H) a f Hinv) as S.
    destruct (bitmap_free a f) as [a' r]. destruct r.
    + destruct S as (Hm & HR & Hinv' & Hr & Ht & Hrsv).
      apply managed_ranges in Hm. cbn [op_ok] in Hop. specialize (Hop Hm).
      unfold RH in HR. rewrite Hop in HR. cbn in HR. apply memb_In in HR.
      pose proof (length_remove_nodup f H Hnd HR) as Hlen.
      cbn [trace_ok]. split; [assumption|]. split; [assumption|]. split; [lia|].
      apply IH; try assumption.
      * apply (Inv_ext (upd (RH R0 H) f false)); [|assumption].
        intros g. unfold upd, RH. destruct (N.eqb_spec g f) as [->|Hne].
        -- rewrite Hop. cbn. symmetry. apply memb_false. apply remove_In.
        -- rewrite memb_remove by assumption. reflexivity.
      * split; [apply nodup_remove; assumption|]. intros g Hg. apply in_remove in Hg. apply Hheld. apply Hg.
      * lia.
    + destruct S as (-> & Hnm). cbn [trace_ok]. split; [reflexivity|]. split.
      { intros Hm. apply Hnm. apply managed_ranges. assumption. }
      apply IH; try assumption; try reflexivity. split; assumption.
    + destruct S as (-> & Hm & HR). apply managed_ranges in Hm.
      unfold RH in HR. apply orb_false_iff in HR. destruct HR as [HR0 HRm]. apply memb_false in HRm.
      cbn [trace_ok]. split; [reflexivity|]. split; [assumption|]. split; [assumption|]. split; [assumption|].
      apply IH; try assumption; try reflexivity. split; assumption.
    + destruct S.
Qed.
