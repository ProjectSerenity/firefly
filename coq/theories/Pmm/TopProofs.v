(** C01 / C03: the theorems about pmm.Init followed by any history, assembled from
    InitProofs (Init establishes the invariant) and HistoryProofs (histories preserve it). *)
From Coq Require Import NArith ZArith Lia List Bool Sorted.
From Coq Require Import ZifyBool ZifyN ZifyNat.
From FF Require Import Lib.Word Gen.Consts_mm_pmm Pmm.Boot Pmm.BootProofs Pmm.Bitmap Pmm.Bits Pmm.BitmapProofs
  Pmm.HistoryProofs Pmm.InitProofs.
Import ListNotations.
Local Open Scope N_scope.

(** the frames handed out by the early-boot allocator during Init = the frames passed to mapFn *)
Definition early_frames (obs : init_obs) : list N := call_frames (o_calls obs).

(** frame [f] may be handed out: wholly inside available RAM, not kernel image, not early-boot *)
Definition usable (m : memmap) (kstart kend : N) (E : list N) (f : N) : Prop :=
  frame_avail m f /\ ~ in_kernel kstart kend f /\ ~ In f E.

(** the histories the properties quantify over: no free of a frame that is inside available RAM
    and was reserved at initialisation (kernel image / early boot) *)
Definition history_ok (m : memmap) (kstart kend : N) (E : list N) (ops : list op) : Prop :=
  forall f, In (OpFree f) ops -> frame_avail m f -> ~ in_kernel kstart kend f /\ ~ In f E.

(** ---- C01: exclusivity, read off a trace ---- *)
Fixpoint exclusive (U : N -> Prop) (H : list N) (tr : list (op * res)) : Prop :=
  match tr with
  | [] => True
  | (OpAlloc, RAlloc (Some f)) :: rest => U f /\ ~ In f H /\ exclusive U (f :: H) rest
  | (OpFree f, RFree FreeOk) :: rest => In f H /\ exclusive U (remove N.eq_dec f H) rest
  | (_, RFree FreePanic) :: _ => False
  | _ :: rest => exclusive U H rest
  end.

(** number of frames in the pool ranges that are not reserved by [R] *)
Fixpoint free_frames (rs : list (N * N)) (R : N -> bool) : N :=
  match rs with
  | [] => 0
  | (s, e) :: rest => cnt (fun i => R (s + i)) (N.to_nat (e + 1 - s)) + free_frames rest R
  end.

Lemma Inv_sum_free R a : Inv R a -> sum_free (a_pools a) = free_frames (ranges (a_pools a)) R.
Proof.
  intros (Hall & _). induction (a_pools a) as [|p ps IH]; [reflexivity|].
  inversion Hall as [|? ? Hp Hps]; subst. cbn [sum_free ranges map free_frames]. fold (ranges ps).
  rewrite (IH Hps). f_equal. destruct Hp as (H1 & H2 & H3 & H4 & H5 & H6). rewrite H6. unfold pool_n in *.
  apply cnt_ext. intros i Hi. apply H5. lia.
Qed.

Definition pool_ranges (m : memmap) : list (N * N) := map region_range (filter pool_region m).

(** frames available for allocation right after Init *)
Definition usable_count (m : memmap) (kstart kend : N) (E : list N) : N :=
  free_frames (pool_ranges m)
    (fun g => kernelb kstart kend g || memb g E).

Section Top.
  Variable m : memmap.
  Variables kstart kend limit mapfail : N.
  Hypothesis Hm : WFmap m.
  Hypothesis Hkern : WFkernel m kstart kend.
  Hypothesis Hsmall : small_map m.
  Variables (a0 : balloc) (b0 : bstate) (obs : init_obs).
  Hypothesis Hinit : pmm_init m kstart kend limit mapfail = (InitOk a0 b0, obs).

  Let E := early_frames obs.
  Let R0 := fun g => kernelb kstart kend g || memb g E.
  Let rs := pool_ranges m.

  Lemma init_facts :
    Inv R0 a0 /\ ranges (a_pools a0) = rs /\ a_total a0 = total_frames m /\
    Forall (good_frame m kstart kend) E /\ StronglySorted N.lt E.
  Proof.
    pose proof (pmm_init_spec m kstart kend Hm Hkern Hsmall limit mapfail) as S.
    rewrite Hinit in S. exact S.
  Qed.

  Lemma R0_usable f : R0 f = false <-> ~ in_kernel kstart kend f /\ ~ In f E.
  Proof.
    unfold R0. rewrite orb_false_iff. rewrite memb_false.
    pose proof (kernelb_spec m kstart kend Hm Hkern f) as K.
    destruct (kernelb kstart kend f); split; intros [H1 H2]; split; try assumption; try congruence.
    - exfalso. apply H1. apply K. reflexivity.
    - intros H. apply K in H. discriminate.
  Qed.

  Lemma history_ops_ok ops : history_ok m kstart kend E ops -> Forall (op_ok rs R0) ops.
  Proof.
    intros H. rewrite Forall_forall. intros [|f] Hin; cbn [op_ok]; [exact I|].
    intros Hr. apply R0_usable. apply H; [assumption|].
    apply (in_ranges_avail m f Hm). assumption.
  Qed.

  (** every step of every admissible history satisfies [trace_ok] *)
  Theorem history_trace ops :
    history_ok m kstart kend E ops ->
    trace_ok rs R0 (total_frames m) (a_reserved a0) a0 [] (run a0 ops) ops.
  Proof.
    intros Hops. destruct init_facts as (Hinv & Hr & Ht & _).
    apply run_trace_ok; try assumption.
    - apply (Inv_ext R0); [|assumption]. intros g. unfold RH. cbn. rewrite orb_false_r. reflexivity.
    - split; [constructor|]. intros f [].
    - cbn. lia.
    - apply history_ops_ok. assumption.
  Qed.

  Lemma trace_exclusive : forall ops a H tr T r0,
    trace_ok rs R0 T r0 a H tr ops ->
    exclusive (usable m kstart kend E) H (combine ops (map fst tr)).
  Proof.
    induction ops as [|o ops IH]; intros a H tr T r0 Htr; [exact I|].
    destruct o as [|f]; destruct tr as [|[r a'] tr]; cbn [trace_ok] in Htr; try contradiction.
    - destruct r as [[f|]|]; try contradiction; cbn [map fst combine exclusive].
      + destruct Htr as (Hin & HR & HnH & _ & _ & _ & _ & Hrest).
        split; [|split; [assumption|eapply IH; eassumption]].
        unfold usable. split; [apply (in_ranges_avail m f Hm); assumption|]. apply R0_usable; assumption.
      + destruct Htr as (_ & _ & _ & _ & Hrest). eapply IH; eassumption.
    - destruct r as [|fr]; try contradiction. destruct fr; cbn [map fst combine exclusive]; try contradiction.
      + destruct Htr as (Hin & _ & _ & Hrest). split; [assumption|eapply IH; eassumption].
      + destruct Htr as (_ & _ & Hrest). eapply IH; eassumption.
      + destruct Htr as (_ & _ & _ & _ & Hrest). eapply IH; eassumption.
  Qed.

  (** C01 *)
  Theorem alloc_exclusive ops :
    history_ok m kstart kend E ops ->
    exclusive (usable m kstart kend E) [] (combine ops (map fst (run a0 ops))).
  Proof. intros H. eapply trace_exclusive. apply history_trace. assumption. Qed.

  (** C03: accounting right after Init *)
  Theorem init_stats :
    a_total a0 = total_frames m /\ a_reserved a0 <= a_total a0 /\
    a_total a0 - a_reserved a0 = usable_count m kstart kend E.
  Proof.
    destruct init_facts as (Hinv & Hr & Ht & _). split; [assumption|].
    pose proof (Inv_sum_free R0 a0 Hinv) as Hsf. rewrite Hr in Hsf.
    destruct Hinv as (_ & _ & _ & _ & Hres). unfold usable_count. fold E. fold R0. fold rs. lia.
  Qed.

  (** C03: accounting along a history; [held] = frames handed out and not yet freed *)
  Fixpoint stats_ok (T U : N) (held : N) (tr : list (res * balloc)) : Prop :=
    match tr with
    | [] => True
    | (r, a') :: rest =>
        let held' := match r with
                     | RAlloc (Some _) => held + 1
                     | RFree FreeOk => held - 1
                     | _ => held
                     end in
        (r = RFree FreeOk -> 1 <= held) /\
        a_total a' = T /\ a_reserved a' <= T /\ T - a_reserved a' + held' = U /\
        stats_ok T U held' rest
    end.

  Lemma trace_stats T r0 U : forall ops a H tr,
    trace_ok rs R0 T r0 a H tr ops ->
    a_total a = T -> a_reserved a = r0 + N.of_nat (length H) -> r0 + N.of_nat (length H) <= T -> T - r0 = U ->
    NoDup H ->
    stats_ok T U (N.of_nat (length H)) tr.
  Proof.
    induction ops as [|o ops IH]; intros a H tr Htr Ht Hr Hle HU Hnd.
    { destruct tr; [exact I|cbn in Htr; contradiction]. }
    destruct tr as [|[r a'] tr]; destruct o as [|f]; cbn [trace_ok] in Htr; try contradiction.
    - destruct r as [[f|]|]; try contradiction; cbn [stats_ok].
      + destruct Htr as (_ & _ & HnH & _ & Ht' & Hr' & Hle' & Hrest).
        split; [discriminate|]. split; [assumption|]. split; [assumption|]. split; [lia|].
        replace (N.of_nat (length H) + 1) with (N.of_nat (length (f :: H))) by (cbn [length]; lia).
        apply (IH a' (f :: H) tr Hrest Ht'); cbn [length]; try lia. constructor; assumption.
      + destruct Htr as (-> & _ & _ & HrT & Hrest).
        split; [discriminate|]. split; [assumption|]. split; [lia|]. split; [lia|].
        apply (IH a H tr Hrest Ht Hr Hle HU Hnd).
    - destruct r as [|fr]; try contradiction. destruct fr; try contradiction; cbn [stats_ok].
      + destruct Htr as (Hin & Ht' & Hr' & Hrest).
        pose proof (length_remove_nodup f H Hnd Hin) as Hlen.
        split; [intros _; lia|]. split; [assumption|]. split; [lia|]. split; [lia|].
        replace (N.of_nat (length H) - 1) with (N.of_nat (length (remove N.eq_dec f H))) by lia.
        apply (IH a' (remove N.eq_dec f H) tr Hrest Ht'); try lia. apply nodup_remove. assumption.
      + destruct Htr as (-> & _ & Hrest).
        split; [discriminate|]. split; [assumption|]. split; [lia|]. split; [lia|].
        apply (IH a H tr Hrest Ht Hr Hle HU Hnd).
      + destruct Htr as (-> & _ & _ & _ & Hrest).
        split; [discriminate|]. split; [assumption|]. split; [lia|]. split; [lia|].
        apply (IH a H tr Hrest Ht Hr Hle HU Hnd).
  Qed.

  (** C03: the reported totals agree with the usable frames at every step *)
  Theorem history_stats ops :
    history_ok m kstart kend E ops ->
    stats_ok (total_frames m) (usable_count m kstart kend E) 0 (run a0 ops).
  Proof.
    intros Hops. destruct init_stats as (Ht & Hle & HU).
    apply (trace_stats (total_frames m) (a_reserved a0) (usable_count m kstart kend E) ops a0 [] (run a0 ops));
      try assumption; cbn [length]; try lia.
    - apply history_trace. assumption.
    - constructor.
  Qed.

  (** C03: exactly the usable frames can be drained, then out-of-memory *)
  Lemma drain_gen : forall k a R,
    Inv R a -> a_total a - a_reserved a = N.of_nat k ->
    exists fs, length fs = k /\
      map fst (run a (repeat OpAlloc (k + 1))) = map (fun f => RAlloc (Some f)) fs ++ [RAlloc None].
  Proof.
    induction k as [|k IH]; intros a R Hinv Hk; cbn [repeat Nat.add run step].
    - pose proof (bitmap_alloc_spec R a Hinv) as S. destruct (bitmap_alloc a) as [a' [f|]].
      + exfalso. destruct S as (_ & _ & Hinv' & _ & Ht & Hr & _).
        destruct Hinv' as (_ & _ & _ & _ & Hle). lia.
      + exists []. split; reflexivity.
    - pose proof (bitmap_alloc_spec R a Hinv) as S. destruct (bitmap_alloc a) as [a' [f|]].
      + destruct S as (_ & _ & Hinv' & _ & Ht & Hr & _).
        destruct (IH a' (upd R f true) Hinv') as (fs & Hlen & Hrun).
        { destruct Hinv' as (_ & _ & _ & _ & Hle). lia. }
        exists (f :: fs). split; [cbn; lia|]. cbn [map fst app]. rewrite Hrun. reflexivity.
      + exfalso. destruct S as (_ & Hfull & _). lia.
  Qed.

  Theorem drain_count :
    exists fs, N.of_nat (length fs) = usable_count m kstart kend E /\
      map fst (run a0 (repeat OpAlloc (length fs + 1))) = map (fun f => RAlloc (Some f)) fs ++ [RAlloc None].
  Proof.
    destruct init_facts as (Hinv & _). destruct init_stats as (_ & _ & HU).
    destruct (drain_gen (N.to_nat (usable_count m kstart kend E)) a0 R0 Hinv ltac:(lia)) as (fs & Hlen & Hrun).
    exists fs. rewrite Hlen. split; [lia|assumption].
  Qed.
End Top.

(** C03: Init never crashes *)
Theorem init_total m kstart kend limit mapfail :
  WFmap m -> WFkernel m kstart kend -> small_map m ->
  match fst (pmm_init m kstart kend limit mapfail) with
  | InitOk _ _ | InitErrReserve | InitErrMap | InitErrOOM => True
  | InitPanic | InitHang | InitStray => False
  end.
Proof.
  intros Hm Hk Hs. pose proof (pmm_init_spec m kstart kend Hm Hk Hs limit mapfail) as S.
  destruct (pmm_init m kstart kend limit mapfail) as [[| | | | | |] obs]; cbn [fst]; try exact I; exact S.
Qed.

(** with seams that do not fail, Init succeeds or reports out-of-memory *)
Theorem init_ok_or_oom m kstart kend :
  WFmap m -> WFkernel m kstart kend -> small_map m ->
  match fst (pmm_init m kstart kend two64 0) with
  | InitOk _ _ | InitErrOOM => True
  | _ => False
  end.
Proof.
  intros Hm Hk Hs. pose proof (init_total m kstart kend two64 0 Hm Hk Hs) as T.
  unfold pmm_init in *.
  destruct (pass1 m 0) as [[npools total] req].
  assert (Hb: (two64 <? required_bytes npools req) = false).
  { unfold required_bytes. change pmask with (2 ^ 12 - 1). rewrite andnot_pow2.
    pose proof (w64_lt (w64 (npools * pmm_sizeofFramePool) + req + (2 ^ 12 - 1))). lia. }
  rewrite Hb in *.
  pose proof (map_pages_spec m kstart kend (N.shiftr (required_bytes npools req) PageShift) 0) as NF.
  destruct (map_pages m (kernel_start_frame kstart) (kernel_end_frame kend) (N.shiftr (required_bytes npools req) PageShift) 0) as [b calls|b calls|b calls];
    cbn [fst] in *; try exact I; [|exact (NF eq_refl)].
  destruct (negb (N.of_nat (length (pass2 m)) =? npools)); cbn [fst] in *; [contradiction|].
  destruct (required_bytes npools req <? layout_bytes m npools); cbn [fst] in *; [contradiction|].
  destruct (reserve_kernel _ _ _); cbn [fst] in *; try contradiction.
  destruct (reserve_early _ _ _ _ _) as [b' [a2| |]]; cbn [fst] in *; try contradiction. exact I.
Qed.
