(** The hand-written model of the early-boot allocator (Pmm/Boot.v: [kernel_start_frame], [kernel_end_frame],
    [boot_visit], [boot_scan], [boot_alloc] - the functions the C02 theorems are about) IS the Gallina translation that
    gen/gotrans regenerates from kernel/mm/pmm/bootmem_allocator.go on every run (Gen/Trans_pmm_boot.v:
    BootMemAllocator.init, BootMemAllocator.AllocFrame).

    The translation works on records generated from the Go structs BootMemAllocator (allocCount, lastAllocFrame,
    kernelStartAddr, kernelEndAddr, kernelStartFrame, kernelEndFrame) and multiboot.MemoryMapEntry (PhysAddress,
    Length, Type); [to_ga] / [to_gr] map the model's state and regions to them (both are onto).
    AllocFrame hands a closure to multiboot.VisitMemRegions: gen/gotrans (config "visitors", ext_visitor.go) makes
    that call a [gvisit] (Lib/GoVisit.v) of the closure body over an extra parameter [regions] - the sequence of entries
    the visitor presents, in order; `return true` = next entry, `return false` = stop; the receiver and the captured
    [err] are loop-carried.  The contract of VisitMemRegions itself is not part of this tie (property C10). *)
From Coq Require Import NArith ZArith String List Bool Lia.
From Coq Require Import ZifyBool ZifyN ZifyNat.
From FF Require Import Lib.Word Lib.GoOps Lib.GoOpsProofs Lib.GoVisit Gen.Consts_mm_pmm Gen.Trans_pmm_boot.
From FF Require Import Pmm.Boot Pmm.BootProofs.
Import ListNotations.
Local Open Scope N_scope.

(** ---- the abstraction ---- *)
Definition to_gr (r : region) : go_multiboot_MemoryMapEntry :=
  mk_go_multiboot_MemoryMapEntry (r_addr r) (r_len r) (r_type r).

(** [ka kb]: kernelStartAddr / kernelEndAddr (only printed by the Go code); [ks ke]: kernelStartFrame / kernelEndFrame *)
Definition to_ga (ka kb ks ke : N) (st : bstate) : go_pmm_BootMemAllocator :=
  mk_go_pmm_BootMemAllocator (b_count st) (b_last st) ka kb ks ke.

Lemma to_gr_onto (g : go_multiboot_MemoryMapEntry) : exists r, g = to_gr r.
Proof. destruct g as [a l t]. exists (mkRegion a l t). reflexivity. Qed.

Lemma to_gr_list_onto (gs : list go_multiboot_MemoryMapEntry) : exists m, gs = map to_gr m.
Proof.
  induction gs as [|g gs [m ->]]; [exists []; reflexivity|].
  destruct (to_gr_onto g) as [r ->]. exists (r :: m). reflexivity.
Qed.

Lemma to_ga_onto (g : go_pmm_BootMemAllocator) : exists ka kb ks ke st, g = to_ga ka kb ks ke st.
Proof. destruct g as [c l ka kb ks ke]. exists ka, kb, ks, ke, (mkB c l). reflexivity. Qed.

Ltac asimp :=
  cbn [to_ga to_gr b_count b_last r_addr r_len r_type
       f_BootMemAllocator_allocCount f_BootMemAllocator_lastAllocFrame f_BootMemAllocator_kernelStartAddr
       f_BootMemAllocator_kernelEndAddr f_BootMemAllocator_kernelStartFrame f_BootMemAllocator_kernelEndFrame
       set_f_BootMemAllocator_allocCount set_f_BootMemAllocator_lastAllocFrame set_f_BootMemAllocator_kernelStartAddr
       set_f_BootMemAllocator_kernelEndAddr set_f_BootMemAllocator_kernelStartFrame set_f_BootMemAllocator_kernelEndFrame
       f_MemoryMapEntry_PhysAddress f_MemoryMapEntry_Length f_MemoryMapEntry_Type].

(** ---- Go's operators on the page constants are the model's ---- *)
Lemma go_pagesize : gw 64 mm_PageSize = PageSize.
Proof. reflexivity. Qed.

Lemma go_pmask : gsub 64 mm_PageSize 1 = pmask.
Proof. reflexivity. Qed.

Lemma go_pmask' : gw 64 (gsub 64 mm_PageSize 1) = pmask.
Proof. reflexivity. Qed.

Lemma pmask_lt : pmask < two64.
Proof. reflexivity. Qed.

Lemma gsub64_sub64 a b : gsub 64 a b = sub64 a b.
Proof. reflexivity. Qed.

(** [Frame((x & ^pageSizeMinus1) >> PageShift)] for a 64-bit [x] *)
Lemma go_frame_down x : x < two64 ->
  gw 64 (N.shiftr (N.land x (gnot 64 pmask)) mm_PageShift) = frame_down x.
Proof.
  intros H. rewrite (land_gnot64 x pmask H pmask_lt).
  change (N.shiftr (N.ldiff x pmask) mm_PageShift) with (frame_down x).
  apply gw64_small. rewrite frame_down_eq. unfold two64 in *. lia.
Qed.

Lemma go_frame_down_w x :
  gw 64 (N.shiftr (N.land (gw 64 x) (gnot 64 pmask)) mm_PageShift) = frame_down (w64 x).
Proof. rewrite (gw64 x). apply go_frame_down. apply w64_lt. Qed.

(** ---- init ---- *)
(** BootMemAllocator.init(kernelStart, kernelEnd) stores the two addresses and the model's [kernel_start_frame] /
    [kernel_end_frame]; the counter and the cursor are untouched.  [kstart] is a uintptr. *)
Theorem bootInit_is_translation : forall (ka kb ks ke : N) (st : bstate) (kstart kend : N),
  kstart < 2 ^ 64 ->
  go_pmm_BootMemAllocator_init (to_ga ka kb ks ke st) kstart kend =
  GOk (to_ga kstart kend (kernel_start_frame kstart) (kernel_end_frame kend) st, tt).
Proof.
  intros ka kb ks ke st kstart kend Hk. unfold go_pmm_BootMemAllocator_init. cbv zeta. asimp.
  rewrite go_pmask. rewrite go_frame_down_w. rewrite (go_frame_down kstart Hk). rewrite gsub64_sub64.
  reflexivity.
Qed.

(** ---- one call of the closure = [boot_visit] ---- *)
(** what the closure leaves in [err]: nil exactly when it stops the scan *)
Definition err_after (stop : bool) (err : option string) : option string := if stop then None else err.

(** Stated for any representation [er] of the entries and [eb] of the allocator record as a function of its cursor,
    since gen/gotrans emits a copy of the record types into every file that uses them. *)
Section Scan.
  Context {E G : Type} (er : region -> E) (eb : N -> G).
  Variables ks ke count : N.

  Definition closure_spec (step : E -> G * option string -> gres ((G * option string) * bool)) : Prop :=
    forall (r : region) (last : N) (err : option string),
      step (er r) (eb last, err) =
      GOk ((eb (fst (boot_visit ks ke count last r)), err_after (snd (boot_visit ks ke count last r)) err),
           negb (snd (boot_visit ks ke count last r))).

  (** the whole visit = [boot_scan] *)
  Lemma scan_is_gvisit step : closure_spec step ->
    forall (m : memmap) (last : N) (err : option string),
      gvisit step (map er m) (eb last, err) =
      GOk (eb (fst (boot_scan ks ke count last m)), err_after (snd (boot_scan ks ke count last m)) err).
  Proof.
    intros H. induction m as [|r m IH]; intros last err; [reflexivity|].
    cbn [map gvisit boot_scan]. rewrite H.
    destruct (boot_visit ks ke count last r) as [l [|]]; cbn [fst snd negb err_after].
    - reflexivity.
    - apply IH.
  Qed.
End Scan.

(** the decision tree of the visitor closure, for any way [F] of building its result from the new cursor and the
    stop flag *)
Lemma visit_cases {T} (F : N -> bool -> T) ks ke count lst r :
  (if negb (r_type r =? multiboot_MemAvailable) || (r_len r <? PageSize) then F lst false else
   let rs := frame_down (w64 (r_addr r + pmask)) in
   let re := sub64 (frame_down (w64 (r_addr r + r_len r))) 1 in
   if re <=? lst then F lst false else
   if (lst <=? rs) && (ks =? rs) || (rs <=? lst) && (lst <=? re) && (w64 (lst + 1) =? ks)
   then (if re <? w64 (ke + 1) then F (w64 (ke + 1)) false else F (w64 (ke + 1)) true)
   else if (lst <? rs) || (count =? 0)
        then (if re <? rs then F rs false else F rs true)
        else (if re <? w64 (lst + 1) then F (w64 (lst + 1)) false else F (w64 (lst + 1)) true))
  = F (fst (boot_visit ks ke count lst r)) (snd (boot_visit ks ke count lst r)).
Proof.
  unfold boot_visit, region_start_frame, region_end_frame, frame_up, is_avail. cbv zeta.
  generalize (frame_down (w64 (r_addr r + pmask))). intros rs.
  generalize (sub64 (frame_down (w64 (r_addr r + r_len r))) 1). intros re.
  destruct (negb (r_type r =? multiboot_MemAvailable) || (r_len r <? PageSize)); [reflexivity|].
  destruct (re <=? lst); [reflexivity|].
  destruct ((lst <=? rs) && (ks =? rs) || (rs <=? lst) && (lst <=? re) && (w64 (lst + 1) =? ks)).
  - destruct (re <? w64 (ke + 1)); reflexivity.
  - destruct ((lst <? rs) || (count =? 0)).
    + destruct (re <? rs); reflexivity.
    + destruct (re <? w64 (lst + 1)); reflexivity.
Qed.

(** ---- AllocFrame ---- *)
Definition err_oom : option string := Some "errBootAllocOutOfMemory"%string.

(** what AllocFrame returns for the model's outcome *)
Definition go_result (res : option N) : N * option string :=
  match res with Some f => (f, None) | None => (mm_InvalidFrame, err_oom) end.

Theorem bootAllocFrame_is_translation : forall (ka kb ks ke : N) (st : bstate) (m : memmap),
  go_pmm_BootMemAllocator_AllocFrame (to_ga ka kb ks ke st) (map to_gr m) =
  GOk (to_ga ka kb ks ke (fst (boot_alloc m ks ke st)), go_result (snd (boot_alloc m ks ke st))).
Proof.
  intros ka kb ks ke [count last] m. unfold go_pmm_BootMemAllocator_AllocFrame. cbv zeta.
  rewrite (scan_is_gvisit to_gr (fun l => to_ga ka kb ks ke (mkB count l)) ks ke count).
  - unfold boot_alloc. cbn [b_count b_last].
    destruct (boot_scan ks ke count last m) as [l [|]]; cbn [fst snd err_after gerr_eqb negb]; asimp; reflexivity.
  - intros r lst err. asimp.
    rewrite go_pagesize, go_pmask'. rewrite !go_frame_down_w. rewrite !gsub64_sub64. change (gw 64) with w64.
    exact (visit_cases (fun l stop => GOk ((to_ga ka kb ks ke (mkB count l), err_after stop err), negb stop)) ks ke count lst r).
Qed.
