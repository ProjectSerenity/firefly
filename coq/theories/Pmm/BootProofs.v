(** Proofs about Pmm/Boot.v (C02). *)
From Coq Require Import NArith ZArith Lia List Bool Sorted.
From Coq Require Import ZifyBool ZifyN ZifyNat.
From FF Require Import Lib.Word Gen.Consts_mm_pmm Pmm.Boot.
Import ListNotations.
Local Open Scope N_scope.

(** Obligations on the regenerated constants. *)
Lemma PageSize_val : PageSize = 4096. Proof. reflexivity. Qed.
Lemma PageShift_val : PageShift = 12. Proof. reflexivity. Qed.
Lemma pmask_val : pmask = 2 ^ 12 - 1. Proof. reflexivity. Qed.
Lemma MemAvailable_nonzero : multiboot_MemAvailable <> 0. Proof. discriminate. Qed.
Lemma MemReserved_not_available : multiboot_MemReserved <> multiboot_MemAvailable. Proof. discriminate. Qed.

(** The type rewriting done by VisitMemRegions never changes availability (whatever the
    threshold above which types count as unknown, as long as MemAvailable is not above it). *)
Lemma norm_type_avail unknown t :
  multiboot_MemAvailable <= unknown ->
  (norm_type unknown t =? multiboot_MemAvailable) = (t =? multiboot_MemAvailable).
Proof.
  intros H. unfold norm_type.
  destruct ((t =? 0) || (unknown <? t)) eqn:E; [|reflexivity].
  pose proof MemAvailable_nonzero. pose proof MemReserved_not_available. lia.
Qed.

(** ---- frame arithmetic without wrap-around ---- *)
Lemma frame_down_eq a : frame_down a = a / 4096.
Proof.
  unfold frame_down. rewrite pmask_val, andnot_pow2, PageShift_val, N.shiftr_div_pow2.
  change (2 ^ 12) with 4096. lia.
Qed.

Lemma frame_up_eq a : a + 4095 < two64 -> frame_up a = (a + 4095) / 4096.
Proof.
  intros H. unfold frame_up. rewrite frame_down_eq. change pmask with 4095.
  rewrite w64_small by exact H. reflexivity.
Qed.

Lemma sub64_small a b : b <= a -> a < two64 -> sub64 a b = a - b.
Proof. intros H1 H2. unfold sub64, w64, two64 in *. lia. Qed.

(** ---- well-formed inputs (the quantifier of C01/C02/C03) ---- *)

(** no address wrap-around, with a page of head-room for the round-up *)
Definition WFregion (r : region) : Prop := r_addr r + r_len r + 4096 <= two64.

(** sorted by address and pairwise non-overlapping, as the bootloader delivers them *)
Fixpoint ordered (m : memmap) : Prop :=
  match m with
  | [] => True
  | r :: rest => Forall (fun r' => r_addr r + r_len r <= r_addr r') rest /\ ordered rest
  end.

Definition WFmap (m : memmap) : Prop := Forall WFregion m /\ ordered m.

(** kernel image [kstart,kend): page-aligned start, non-empty, inside one available region *)
Definition WFkernel (m : memmap) (kstart kend : N) : Prop :=
  kstart mod 4096 = 0 /\ kstart < kend /\
  exists r, In r m /\ is_avail r = true /\ r_addr r <= kstart /\ kend <= r_addr r + r_len r.

(** ---- what the property talks about ---- *)

(** frame [f] lies wholly inside a region reported as available *)
Definition frame_avail (m : memmap) (f : N) : Prop :=
  exists r, In r m /\ is_avail r = true /\ r_addr r <= f * 4096 /\ (f + 1) * 4096 <= r_addr r + r_len r.

(** frame [f] holds at least one byte of the kernel image *)
Definition in_kernel (kstart kend f : N) : Prop := f * 4096 < kend /\ kstart < (f + 1) * 4096.

Definition good_frame (m : memmap) (kstart kend f : N) : Prop :=
  frame_avail m f /\ ~ in_kernel kstart kend f.

Fixpoint successes (l : list (option N)) : list N :=
  match l with
  | [] => []
  | Some f :: rest => f :: successes rest
  | None :: rest => successes rest
  end.

(** ---- one region ---- *)
Definition eligible (r : region) : Prop := is_avail r = true /\ 4096 <= r_len r.
Definition RS (r : region) : N := (r_addr r + 4095) / 4096.
Definition RE1 (r : region) : N := (r_addr r + r_len r) / 4096.   (* exclusive *)

(** relation of a region to the kernel image: before it, after it, or holding it *)
Definition KR (kstart kend : N) (r : region) : Prop :=
  r_addr r + r_len r <= kstart \/ kend <= r_addr r \/ (r_addr r <= kstart /\ kend <= r_addr r + r_len r).

Definition big : N := 4503599627370496. (* 2^52 *)

(** The frame numbers enter the proofs only through these linear brackets, so that no later
    [lia] call has to eliminate a division. *)
Lemma RS_bounds r : r_addr r <= RS r * 4096 < r_addr r + 4096.
Proof. unfold RS. lia. Qed.

Lemma RE1_bounds r : RE1 r * 4096 <= r_addr r + r_len r < (RE1 r + 1) * 4096.
Proof. unfold RE1. lia. Qed.

Lemma frame_in_region r f :
  r_addr r <= f * 4096 /\ (f + 1) * 4096 <= r_addr r + r_len r <-> RS r <= f < RE1 r.
Proof. pose proof (RS_bounds r). pose proof (RE1_bounds r). lia. Qed.

Lemma region_start_frame_eq r : WFregion r -> region_start_frame r = RS r.
Proof. intros H. apply frame_up_eq. unfold WFregion in H. lia. Qed.

Lemma region_end_frame_eq r : WFregion r -> 1 <= RE1 r -> region_end_frame r = RE1 r - 1.
Proof.
  intros H H1. unfold region_end_frame. unfold WFregion in H.
  rewrite w64_small, frame_down_eq by lia.
  apply sub64_small; [exact H1|]. pose proof (RE1_bounds r). fold (RE1 r). unfold two64 in *. lia.
Qed.

(** the test at the head of the visitor closure *)
Lemma eligible_test r : negb (is_avail r) || (r_len r <? PageSize) = false <-> eligible r.
Proof. unfold eligible. rewrite PageSize_val. destruct (is_avail r); cbn [negb orb]; lia. Qed.

Section Kernel.
  Variables kstart kend : N.
  Hypothesis Hal : kstart mod 4096 = 0.
  Hypothesis Hlt : kstart < kend.
  Hypothesis Hk : kend + 4096 <= two64.

  Let ks := kernel_start_frame kstart.
  Let ke := kernel_end_frame kend.

  Lemma kernel_frames_bounds : ks * 4096 = kstart /\ kend <= (ke + 1) * 4096 < kend + 4096.
  Proof.
    unfold ks, ke, kernel_start_frame, kernel_end_frame.
    rewrite frame_down_eq, frame_up_eq by lia.
    rewrite sub64_small; unfold two64 in *; lia.
  Qed.

  Lemma in_kernel_frames f : in_kernel kstart kend f <-> ks <= f <= ke.
  Proof. unfold in_kernel. destruct kernel_frames_bounds. lia. Qed.

  (** scan-state invariant: [c <> 0 -> l] is not a kernel frame other than the last one *)
  Definition cur_ok (c l : N) : Prop := l <= big /\ (c <> 0 -> ~ (ks <= l < ke)).

  Lemma visit_ok c l r :
    WFregion r -> KR kstart kend r -> cur_ok c l ->
    (c = 0 -> eligible r -> l <= RS r) ->
    let '(l', stop) := boot_visit ks ke c l r in
    l <= l' /\ cur_ok c l' /\
    (if stop
     then is_avail r = true /\ r_addr r <= l' * 4096 /\ (l' + 1) * 4096 <= r_addr r + r_len r /\
          ~ in_kernel kstart kend l' /\ (c <> 0 -> l < l')
     else (eligible r -> RE1 r <= l' + 1) /\
          (c = 0 -> l' = l \/ l' * 4096 <= r_addr r + r_len r + 4095)).
  Proof.
    intros Hwf Hkr [Hbig Hcur] Hs3.
    unfold boot_visit.
    destruct (negb (is_avail r) || (r_len r <? PageSize)) eqn:Eel.
    { split; [lia|]. split; [split; assumption|]. split.
      - intros Hel. apply eligible_test in Hel. congruence.
      - intros _. left. reflexivity. }
    apply eligible_test in Eel. destruct Eel as [Hav Hlen]. specialize (fun H => Hs3 H (conj Hav Hlen)).
    pose proof (RS_bounds r) as Hrs. pose proof (RE1_bounds r) as Hre.
    rewrite region_start_frame_eq, region_end_frame_eq by (assumption || lia).
    destruct kernel_frames_bounds as [Hks Hke].
    assert (Hre1: exists re, RE1 r = re + 1) by (exists (RE1 r - 1); lia).
    destruct Hre1 as [re Hre1]. rewrite Hre1 in *. rewrite N.add_sub.
    unfold cur_ok, in_kernel, KR, WFregion, big, two64 in *.
    clearbody ks ke. clear Hal Hre1.
    generalize dependent (RS r). intros rs Hs3 Hrs.
    rewrite !w64_small by (unfold two64; lia).
    destruct (re <=? l) eqn:Eskip; [lia|].
    destruct ((l <=? rs) && (ks =? rs) || (rs <=? l) && (l <=? re) && (l + 1 =? ks)) eqn:E1.
    { (* jump over the kernel image *)
      destruct (re <? ke + 1) eqn:Eover; [lia|split; [lia|split; [lia|split; [assumption|lia]]]]. }
    destruct ((l <? rs) || (c =? 0)) eqn:E2.
    { (* first frame of this region *)
      assert (Hle: l <= rs /\ ks <> rs /\ (c <> 0 -> l < rs)) by lia. clear E1 E2 Hs3.
      destruct (re <? rs) eqn:Eover; [lia|split; [lia|split; [lia|split; [assumption|lia]]]]. }
    (* next frame of this region *)
    destruct (re <? l + 1) eqn:Eover; [lia|split; [lia|split; [lia|split; [assumption|lia]]]].
  Qed.

  (** ---- one scan ---- *)
  Lemma scan_ok c : forall rest l,
    Forall WFregion rest -> ordered rest -> Forall (KR kstart kend) rest -> cur_ok c l ->
    (c = 0 -> Forall (fun r => eligible r -> l <= RS r) rest) ->
    let '(l', found) := boot_scan ks ke c l rest in
    l <= l' /\ cur_ok c l' /\
    (if found
     then (exists r, In r rest /\ is_avail r = true /\ r_addr r <= l' * 4096 /\ (l' + 1) * 4096 <= r_addr r + r_len r) /\
          ~ in_kernel kstart kend l' /\ (c <> 0 -> l < l')
     else Forall (fun r => eligible r -> RE1 r <= l' + 1) rest).
  Proof.
    induction rest as [|r rest IH]; intros l Hwf Hord Hkr Hcur Hs3; cbn [boot_scan].
    - split; [lia|split; [assumption|constructor]].
    - inversion Hwf as [|? ? Hwr Hwrest]; subst.
      inversion Hkr as [|? ? Hkr1 Hkrest]; subst.
      destruct Hord as [Hord1 Hord2].
      assert (Hs3r: c = 0 -> eligible r -> l <= RS r).
      { intros Hc. exact (Forall_inv (Hs3 Hc)). }
      pose proof (visit_ok c l r Hwr Hkr1 Hcur Hs3r) as V.
      destruct (boot_visit ks ke c l r) as [l1 stop].
      destruct V as (Hmono & Hcur1 & V).
      destruct stop.
      + destruct V as (Ha & Hlo & Hhi & Hnk & Hasc).
        split; [assumption|]. split; [assumption|]. split; [|split; assumption].
        exists r. split; [left; reflexivity|]. repeat split; assumption.
      + destruct V as (Hdead & Hnext).
        assert (Hs3': c = 0 -> Forall (fun r => eligible r -> l1 <= RS r) rest).
        { intros Hc. pose proof (Forall_inv_tail (Hs3 Hc)) as Hs3rest.
          destruct (Hnext Hc) as [->|Hn]; [assumption|].
          rewrite Forall_forall in *. intros r2 Hin2 _.
          specialize (Hord1 r2 Hin2). pose proof (RS_bounds r2). lia. }
        pose proof (IH l1 Hwrest Hord2 Hkrest Hcur1 Hs3') as R.
        destruct (boot_scan ks ke c l1 rest) as [l2 found].
        destruct R as (Hmono2 & Hcur2 & R).
        split; [lia|]. split; [assumption|].
        destruct found.
        * destruct R as ((r2 & Hin2 & R2) & Hnk & Hasc).
          split; [|split; [assumption|]].
          -- exists r2. split; [right; exact Hin2|exact R2].
          -- intros Hc. specialize (Hasc Hc). lia.
        * constructor.
          -- intros He. specialize (Hdead He). lia.
          -- exact R.
  Qed.

  (** A cursor at or past the last whole frame of every usable region: nothing is found and
      nothing changes. *)
  Lemma scan_dead c : forall rest l,
    Forall WFregion rest -> l <= big ->
    Forall (fun r => eligible r -> RE1 r <= l + 1) rest ->
    boot_scan ks ke c l rest = (l, false).
  Proof.
    induction rest as [|r rest IH]; intros l Hwf Hbig Hd; cbn [boot_scan]; [reflexivity|].
    inversion Hwf as [|? ? Hwr Hwrest]; subst. inversion Hd as [|? ? Hd1 Hdrest]; subst.
    assert (V: boot_visit ks ke c l r = (l, false)).
    { unfold boot_visit.
      destruct (negb (is_avail r) || (r_len r <? PageSize)) eqn:Eel; [reflexivity|].
      apply eligible_test in Eel. specialize (Hd1 Eel). destruct Eel as [_ Hlen].
      pose proof (RE1_bounds r).
      rewrite region_end_frame_eq by (assumption || lia).
      destruct (RE1 r - 1 <=? l) eqn:E; [reflexivity|lia]. }
    rewrite V. apply IH; assumption.
  Qed.
End Kernel.

(** ---- states ---- *)
Section Runs.
  Variable m : memmap.
  Variables kstart kend : N.
  Hypothesis Hm : WFmap m.
  Hypothesis Hkern : WFkernel m kstart kend.

  Let ks := kernel_start_frame kstart.
  Let ke := kernel_end_frame kend.

  Lemma kernel_facts :
    kstart mod 4096 = 0 /\ kstart < kend /\ kend + 4096 <= two64 /\ Forall (KR kstart kend) m.
  Proof.
    destruct Hkern as (Hal & Hlt & rk & Hin & Hav & Hlo & Hhi). destruct Hm as [Hwf Hord].
    repeat split; try assumption.
    - rewrite Forall_forall in Hwf. specialize (Hwf rk Hin). unfold WFregion in Hwf. lia.
    - clear Hkern Hm Hwf. induction m as [|r rest IH]; [constructor|].
      destruct Hord as [Ho1 Ho2]. rewrite Forall_forall in Ho1.
      destruct Hin as [->|Hin].
      + constructor.
        * right. right. split; assumption.
        * rewrite Forall_forall. intros r2 H2. specialize (Ho1 r2 H2). unfold KR. lia.
      + constructor.
        * specialize (Ho1 rk Hin). unfold KR. lia.
        * apply IH; assumption.
  Qed.

  Definition dead (l : N) : Prop := l <= big /\ Forall (fun r => eligible r -> RE1 r <= l + 1) m.

  (** Invariant of the allocator state between calls: fresh, or the cursor is the frame handed
      out last, or the allocator is exhausted. *)
  Definition st_inv (st : bstate) : Prop :=
    (b_count st = 0 /\ b_last st = 0) \/
    (b_count st <> 0 /\ b_count st <= b_last st + 1 /\ cur_ok kstart kend (b_count st) (b_last st)) \/
    dead (b_last st).

  Lemma found_state c l :
    kstart mod 4096 = 0 -> kstart < kend -> kend + 4096 <= two64 ->
    c <= l -> l <= big -> ~ in_kernel kstart kend l ->
    mkB (w64 (c + 1)) l = mkB (c + 1) l /\ st_inv (mkB (w64 (c + 1)) l).
  Proof.
    intros Hal Hlt Hk Hcl Hbig Hnk. unfold big in Hbig.
    assert (Hw: w64 (c + 1) = c + 1) by (apply w64_small; unfold two64; lia).
    rewrite Hw. split; [reflexivity|].
    right. left. cbn [b_count b_last]. split; [lia|]. split; [lia|].
    split; [unfold big; lia|].
    intros _ H. apply Hnk. apply in_kernel_frames; try assumption. fold ks ke. lia.
  Qed.

  Definition step_ok (st : bstate) (res : bstate * option N) : Prop :=
    match res with
    | (st', Some f) =>
        good_frame m kstart kend f /\ (b_count st <> 0 -> b_last st < f) /\
        st' = mkB (b_count st + 1) f /\ st_inv st'
    | (st', None) => dead (b_last st') /\ b_count st' = b_count st /\ st_inv st' /\ b_last st <= b_last st'
    end.

  Lemma alloc_dead st : dead (b_last st) -> boot_alloc m ks ke st = (st, None).
  Proof.
    intros [Hbig Hd]. destruct kernel_facts as (Hal & Hlt & Hk & Hkr). destruct Hm as [Hwf Hord].
    unfold boot_alloc. pose proof (scan_dead kstart kend Hal Hlt Hk (b_count st) m (b_last st) Hwf Hbig Hd) as Esd; fold ks ke in Esd; rewrite Esd.
    destruct st; reflexivity.
  Qed.

  Lemma alloc_live st :
    cur_ok kstart kend (b_count st) (b_last st) ->
    (b_count st = 0 -> b_last st = 0) -> b_count st <= b_last st + 1 ->
    step_ok st (boot_alloc m ks ke st).
  Proof.
    intros Hcur Hfresh Hcl. destruct kernel_facts as (Hal & Hlt & Hk & Hkr). destruct Hm as [Hwf Hord].
    unfold boot_alloc.
    assert (Hs3: b_count st = 0 -> Forall (fun r => eligible r -> b_last st <= RS r) m).
    { intros Hc. rewrite (Hfresh Hc). rewrite Forall_forall. intros; lia. }
    pose proof (scan_ok kstart kend Hal Hlt Hk (b_count st) m (b_last st) Hwf Hord Hkr Hcur Hs3) as R.
    fold ks ke in R. destruct (boot_scan ks ke (b_count st) (b_last st) m) as [l found].
    destruct R as (Hmono & Hcur' & R). destruct found; cbn [step_ok].
    - destruct R as (Hav & Hnk & Hasc).
      assert (Hcl': b_count st <= l).
      { destruct (N.eq_dec (b_count st) 0) as [E|E]; [lia|]. specialize (Hasc E). lia. }
      destruct (found_state (b_count st) l Hal Hlt Hk Hcl' (proj1 Hcur') Hnk) as [E1 E2].
      split; [split; assumption|]. split; [assumption|]. split; assumption.
    - cbn [b_count b_last]. split; [split; [apply Hcur'|assumption]|]. split; [reflexivity|].
      split; [|assumption]. right. right. split; [apply Hcur'|assumption].
  Qed.

  Lemma alloc_step st : st_inv st -> step_ok st (boot_alloc m ks ke st).
  Proof.
    intros [[Hc Hl]|[(Hc & Hcl & Hcur)|Hd]].
    - apply alloc_live; [|intros _; assumption|lia].
      rewrite Hc, Hl. split; [unfold big; lia|]. intros H; exfalso; apply H; reflexivity.
    - apply alloc_live; try assumption. intros; contradiction.
    - rewrite (alloc_dead st Hd). cbn [step_ok]. split; [assumption|]. split; [reflexivity|].
      split; [|lia]. right. right. assumption.
  Qed.

  (** ---- sequences of calls ---- *)
  Lemma run_sound : forall n st,
    st_inv st ->
    let fs := successes (snd (boot_run m ks ke n st)) in
    Forall (good_frame m kstart kend) fs /\
    StronglySorted N.lt fs /\
    (b_count st <> 0 -> Forall (fun f => b_last st < f) fs).
  Proof.
    induction n as [|n IH]; intros st Hinv; cbn [boot_run].
    - cbn. repeat split; constructor.
    - pose proof (alloc_step st Hinv) as A.
      destruct (boot_alloc m ks ke st) as [st1 r].
      destruct r as [f|].
      + destruct A as (Hgood & Hasc & Hst1 & Hinv1).
        specialize (IH st1 Hinv1).
        destruct (boot_run m ks ke n st1) as [st2 rs]. cbn [snd successes] in *.
        destruct IH as (IH1 & IH2 & IH3).
        assert (Hc1: b_count st1 <> 0) by (subst st1; cbn; lia).
        specialize (IH3 Hc1). subst st1. cbn [b_last] in IH3.
        repeat split.
        * constructor; assumption.
        * constructor; assumption.
        * intros Hc. specialize (Hasc Hc). constructor; [assumption|].
          eapply Forall_impl; [|exact IH3]. cbn. intros; lia.
      + destruct A as (Hdead & Hcnt & Hinv1 & Hmono).
        specialize (IH st1 Hinv1).
        destruct (boot_run m ks ke n st1) as [st2 rs]. cbn [snd successes] in *.
        destruct IH as (IH1 & IH2 & IH3).
        repeat split; try assumption.
        intros Hc. rewrite <- Hcnt in Hc. specialize (IH3 Hc).
        eapply Forall_impl; [|exact IH3]. cbn. intros; lia.
  Qed.

  Lemma run_dead : forall n st, dead (b_last st) -> boot_run m ks ke n st = (st, repeat None n).
  Proof.
    induction n as [|n IH]; intros st Hd; cbn [boot_run repeat]; [reflexivity|].
    rewrite (alloc_dead st Hd). rewrite (IH st Hd). reflexivity.
  Qed.

  Lemma successes_app l1 l2 : successes (l1 ++ l2) = successes l1 ++ successes l2.
  Proof. induction l1 as [|[f|] l1 IH]; cbn; [reflexivity|rewrite IH; reflexivity|exact IH]. Qed.

  Lemma successes_none n : successes (repeat None n) = [].
  Proof. induction n; cbn; auto. Qed.

  Lemma successes_some fs : successes (map Some fs) = fs.
  Proof. induction fs as [|f fs IH]; cbn; [reflexivity|rewrite IH; reflexivity]. Qed.

  (** Out-of-memory is final: the results of any run are frames followed only by failures, and
      the counter counts exactly the frames. *)
  Lemma run_shape : forall n st,
    st_inv st ->
    let '(st', rs) := boot_run m ks ke n st in
    st_inv st' /\
    (exists k, rs = map Some (successes rs) ++ repeat None k) /\
    b_count st' = b_count st + N.of_nat (length (successes rs)).
  Proof.
    induction n as [|n IH]; intros st Hinv; cbn [boot_run].
    - cbn. split; [assumption|]. split; [exists 0%nat; reflexivity|lia].
    - pose proof (alloc_step st Hinv) as A.
      destruct (boot_alloc m ks ke st) as [st1 r] eqn:E.
      destruct r as [f|].
      + destruct A as (_ & _ & Hst1 & Hinv1).
        specialize (IH st1 Hinv1). destruct (boot_run m ks ke n st1) as [st2 rs].
        destruct IH as (I1 & (k & I2) & I3).
        split; [assumption|]. cbn [successes map app length]. split.
        * exists k. cbn. rewrite <- I2. reflexivity.
        * rewrite I3. subst st1. cbn [b_count]. lia.
      + destruct A as (Hdead & Hcnt & Hinv1 & _).
        rewrite (run_dead n st1 Hdead). cbn [successes]. rewrite successes_none.
        split; [assumption|]. split; [exists (S n); reflexivity|]. cbn. lia.
  Qed.

  Lemma run_firstn : forall c n st, (c <= n)%nat ->
    snd (boot_run m ks ke c st) = firstn c (snd (boot_run m ks ke n st)).
  Proof.
    induction c as [|c IH]; intros n st Hle; [reflexivity|].
    destruct n as [|n]; [lia|]. cbn [boot_run].
    destruct (boot_alloc m ks ke st) as [st1 r].
    specialize (IH n st1 ltac:(lia)).
    destruct (boot_run m ks ke c st1) as [sa ra]. destruct (boot_run m ks ke n st1) as [sb rb].
    cbn [snd firstn] in *. rewrite IH. reflexivity.
  Qed.

  Lemma run_app : forall a b st,
    boot_run m ks ke (a + b) st =
    let '(st1, r1) := boot_run m ks ke a st in
    let '(st2, r2) := boot_run m ks ke b st1 in (st2, r1 ++ r2).
  Proof.
    induction a as [|a IH]; intros b st; cbn [boot_run Nat.add].
    - destruct (boot_run m ks ke b st); reflexivity.
    - destruct (boot_alloc m ks ke st) as [st1 r]. rewrite IH.
      destruct (boot_run m ks ke a st1) as [sa ra]. destruct (boot_run m ks ke b sa) as [sb rb]. reflexivity.
  Qed.

  Lemma run_length : forall n st, length (snd (boot_run m ks ke n st)) = n.
  Proof.
    induction n as [|n IH]; intros st; cbn [boot_run]; [reflexivity|].
    destruct (boot_alloc m ks ke st) as [s1 r]. specialize (IH s1).
    destruct (boot_run m ks ke n s1) as [s2 rs2]. cbn [snd length] in *. rewrite IH. reflexivity.
  Qed.

  Lemma reset_inv : st_inv boot_reset.
  Proof. left. split; reflexivity. Qed.

  (** C02, soundness over every number of calls from the initial state. *)
  Theorem boot_alloc_sound n :
    let fs := successes (snd (boot_run m ks ke n boot_reset)) in
    Forall (good_frame m kstart kend) fs /\ StronglySorted N.lt fs.
  Proof.
    destruct (run_sound n boot_reset reset_inv) as (H1 & H2 & _). split; assumption.
  Qed.

  (** C02, out of memory: when no frame that is wholly inside available RAM, outside the kernel
      image and above every frame handed out so far remains, the next call reports
      out-of-memory. *)
  Theorem boot_alloc_oom n :
    let '(st, rs) := boot_run m ks ke n boot_reset in
    (forall f, good_frame m kstart kend f -> Forall (fun g => g < f) (successes rs) -> False) ->
    snd (boot_alloc m ks ke st) = None.
  Proof.
    pose proof (boot_alloc_sound (n + 1)) as S. cbn zeta in S.
    rewrite run_app in S.
    destruct (boot_run m ks ke n boot_reset) as [st rs].
    intros Hno. cbn [boot_run] in S.
    destruct (boot_alloc m ks ke st) as [st1 [f|]]; [|reflexivity].
    exfalso. cbn [snd] in S. rewrite successes_app in S. cbn [successes] in S.
    destruct S as [S1 S2].
    apply (Hno f).
    - rewrite Forall_app in S1. destruct S1 as [_ S1]. inversion S1; assumption.
    - clear - S2. induction (successes rs) as [|g gs IH]; [constructor|].
      cbn in S2. inversion S2 as [|? ? S3 S4]; subst. constructor.
      + rewrite Forall_app in S4. destruct S4 as [_ S4]. inversion S4; assumption.
      + apply IH. assumption.
  Qed.

  (** C02, replay: the counter is the number of frames handed out, and that many calls from the
      reset state return exactly those frames in the same order (what
      reserveEarlyAllocatorFrames relies on). *)
  Theorem boot_replay n :
    let '(st, rs) := boot_run m ks ke n boot_reset in
    b_count st = N.of_nat (length (successes rs)) /\
    snd (boot_run m ks ke (N.to_nat (b_count st)) boot_reset) = map Some (successes rs).
  Proof.
    pose proof (run_shape n boot_reset reset_inv) as Sh.
    pose proof (run_firstn) as F.
    destruct (boot_run m ks ke n boot_reset) as [st rs] eqn:E.
    destruct Sh as (_ & (k & Hk) & Hc). cbn [boot_reset b_count] in Hc.
    split; [lia|].
    assert (Hlen: length rs = n) by (pose proof (run_length n boot_reset) as L; rewrite E in L; exact L).
    replace (N.to_nat (b_count st)) with (length (successes rs)) by lia.
    assert (Hle: (length (successes rs) <= n)%nat).
    { rewrite <- Hlen. rewrite Hk at 2. rewrite app_length, map_length. lia. }
    rewrite (F _ n boot_reset Hle). rewrite E. cbn [snd].
    rewrite Hk at 2. rewrite firstn_app, map_length, Nat.sub_diag. cbn [firstn].
    rewrite app_nil_r. rewrite <- (map_length Some (successes rs)) at 1. apply firstn_all.
  Qed.
End Runs.
