(** Bitmap frame allocator, tie by translation, fifth part: the translated FRAGMENTS of setupPoolBitmaps
    (Pmm/BitmapTrans4.v) connected in the order the function runs them,
        pass 1 over all regions -> required bytes / pages -> [reserve + map + memset: not translated] -> layout -> pass 2 over all regions,
    and shown to produce the model's set-up: [pass1], [required_bytes], [pass2] = the pools of [pmm_init], [layout_bytes].

    The connection itself ([go_pass1_all], [go_pass2_all], [go_setup_sizes]) is hand-written Gallina and is what remains
    ASSUMED about the Go function beyond its translated fragments:
      - each closure is run once per memory-map entry, in order (the contract of multiboot.VisitMemRegions: property C10,
        C10_visitMemRegions_is_translation), and never stops the visit;
      - the unsafe overlay of alloc.pools on alloc.poolsHdr yields poolsHdr.Len zero-valued pools (the
        area was zeroed by kernel.Memset), and the renamed expressions alloc.pools[poolIndex].f denote the fields of the pool at
        the index poolIndex has on entry to the closure; the bitmap overlay yields freeBitmapHdr.Len zero words;
      - the var block binds pageSizeMinus1 = mm.PageSize - 1 and sizeofPool = unsafe.Sizeof(framePool{}). *)
From Coq Require Import NArith ZArith String List Bool Lia.
From Coq Require Import ZifyBool ZifyN ZifyNat.
From FF Require Import Lib.Word Lib.GoOps Lib.GoOpsExt Lib.GoOpsProofs Lib.GoVisit Gen.Consts_mm_pmm Gen.Trans_pmm_bitmap.
From FF Require Import Pmm.Boot Pmm.Bitmap Pmm.BitmapTrans Pmm.BitmapTrans3 Pmm.BitmapTrans4.
Import ListNotations.
Local Open Scope N_scope.

(** ---- pass 1 over the whole map ---- *)
Definition pass1_state : Type := (go_pmm_BitmapAllocator * N * N * N)%type.

Definition go_pass1_all (ga : go_pmm_BitmapAllocator) (gs : list go_multiboot_MemoryMapEntry) (len cap req : N) : gres pass1_state :=
  gvisit (fun g (st : pass1_state) =>
            let '(ga, len, cap, req) := st in go_pmm_BitmapAllocator_setupPoolBitmaps_pass1 ga pmask len cap req g)
         gs (ga, len, cap, req).

Lemma pass1_step_count acc r :
  fst (fst (pass1_step acc r)) = if pool_region r then fst (fst acc) + 1 else fst (fst acc).
Proof. destruct acc as [[np t] q]. unfold pass1_step. destruct (pool_region r); reflexivity. Qed.

Lemma pass1_all_is_fold mtx tr : forall (m : memmap) (a : balloc) (np req : N),
  np + N.of_nat (length m) < two64 ->
  go_pass1_all (to_ga mtx a tr) (map to_gr m) np np req =
  let '(np', total', req') := fold_left pass1_step m (np, a_total a, req) in
  GOk (to_ga mtx (mkBA total' (a_reserved a) (a_pools a)) tr, np', np', req').
Proof.
  unfold go_pass1_all. induction m as [|r m IH]; intros a np req Hn.
  - cbn [map gvisit fold_left]. destruct a; reflexivity.
  - cbn [map gvisit fold_left]. cbn [length] in Hn.
    rewrite pass1_is_translation by lia.
    pose proof (pass1_step_count (np, a_total a, req) r) as Hc.
    destruct (pass1_step (np, a_total a, req) r) as [[np1 t1] q1]. cbn [fst] in Hc.
    replace (if pool_region r then gw 64 (np + 1) else np) with np1
      by (destruct (pool_region r); [rewrite gw64_small by lia|]; congruence).
    specialize (IH (mkBA t1 (a_reserved a) (a_pools a)) np1 q1). cbn [a_total a_reserved a_pools] in IH.
    apply IH. destruct (pool_region r); lia.
Qed.

(** the pool count of pass 1 is the number of regions that provide a pool *)
Lemma pass1_fold_count : forall m acc,
  fst (fst (fold_left pass1_step m acc)) = fst (fst acc) + N.of_nat (length (filter pool_region m)).
Proof.
  induction m as [|r m IH]; intros acc; cbn [fold_left filter length]; [lia|].
  rewrite IH, pass1_step_count. destruct (pool_region r); cbn [length]; lia.
Qed.

Lemma pass1_npools m t : fst (fst (pass1 m t)) = N.of_nat (length (pass2 m)).
Proof. unfold pass1, pass2. rewrite pass1_fold_count, map_length. cbn [fst]. lia. Qed.

(** ---- pass 2 over the whole map ---- *)
Definition pool_at (ps : list pool) (pi : N) : pool := nth (N.to_nat pi) ps zero_pool.

Fixpoint go_pass2_all (ga : go_pmm_BitmapAllocator) (gs : list go_multiboot_MemoryMapEntry) (bsa pi : N) (ps : list pool)
  : gres (N * N * list pool) :=
  match gs with
  | [] => GOk (bsa, pi, ps)
  | g :: gs' =>
      let p := pool_at ps pi in
      let words := N.of_nat (length (p_bitmap p)) in
      match go_pmm_BitmapAllocator_setupPoolBitmaps_pass2 ga pmask bsa pi (p_start p) (p_end p) (p_free p) words words 0 g with
      | GOk ((_, bsa', pi', s, e, f, l, _, _), true) =>
          go_pass2_all ga gs' bsa' pi' (update_pool (N.to_nat pi) (mkPool s e f (repeat 0 (N.to_nat l))) ps)
      | GOk (_, false) => GOk (bsa, pi, ps)
      | GPanic => GPanic
      | GFuel => GFuel
      end
  end.

Definition bitmap_total' (rs : list region) : N := fold_left (fun acc r => acc + bitmap_bytes r) rs 0.

Lemma fold_bytes_shift : forall rs x, fold_left (fun acc r => acc + bitmap_bytes r) rs x = x + bitmap_total' rs.
Proof.
  unfold bitmap_total'. induction rs as [|r rs IH]; intros x; cbn [fold_left]; [lia|].
  rewrite IH, (IH (0 + bitmap_bytes r)). lia.
Qed.

Lemma pool_at_zero done k : pool_at (map pool_of_region done ++ repeat zero_pool k) (N.of_nat (length done)) = zero_pool.
Proof.
  unfold pool_at. rewrite Nat2N.id. rewrite app_nth2 by (rewrite map_length; lia).
  rewrite map_length, Nat.sub_diag. destruct k; reflexivity.
Qed.

Lemma update_pool_app_zero (l1 : list pool) n p' k : length l1 = n ->
  update_pool n p' (l1 ++ repeat zero_pool (S k)) = (l1 ++ [p']) ++ repeat zero_pool k.
Proof.
  intros <-. induction l1 as [|h l1 IH]; cbn [length update_pool app repeat]; [reflexivity|]. f_equal. apply IH.
Qed.

Lemma update_pool_zero_noop : forall (l : list pool) i, nth i l zero_pool = zero_pool -> update_pool i zero_pool l = l.
Proof.
  induction l as [|h l IH]; intros i H; destruct i; cbn [update_pool nth] in *; try reflexivity.
  - congruence.
  - f_equal. apply IH. exact H.
Qed.

Lemma w64_add_l a b : w64 (w64 a + b) = w64 (a + b).
Proof. unfold w64. apply N.add_mod_idemp_l. discriminate. Qed.

Lemma pass2_all_is_model ga : forall (m done : list region) (bsa : N) (k : nat),
  bsa < two64 -> (length (filter pool_region m) <= k)%nat -> N.of_nat (length done + k) < two64 ->
  go_pass2_all ga (map to_gr m) bsa (N.of_nat (length done)) (map pool_of_region done ++ repeat zero_pool k) =
  GOk (w64 (bsa + bitmap_total' (filter pool_region m)),
       N.of_nat (length done + length (filter pool_region m)),
       map pool_of_region (done ++ filter pool_region m) ++ repeat zero_pool (k - length (filter pool_region m))).
Proof.
  induction m as [|r m IH]; intros done bsa k Hb Hk Hn.
  - cbn [map go_pass2_all filter length]. rewrite Nat.add_0_r, Nat.sub_0_r, app_nil_r.
    unfold bitmap_total'. cbn [fold_left]. rewrite N.add_0_r, (w64_small bsa Hb). reflexivity.
  - cbn [map go_pass2_all]. rewrite pool_at_zero. cbn [zero_pool p_start p_end p_free p_bitmap length].
    rewrite pass2_is_translation. cbn [filter] in Hk |- *.
    destruct (pool_region r) eqn:Er.
    + cbn [length] in Hk. destruct k as [|k]; [lia|].
      rewrite Nat2N.id.
      rewrite (update_pool_app_zero (map pool_of_region done) (length done)) by apply map_length.
      replace (mkPool (p_start (pool_of_region r)) (p_end (pool_of_region r)) (p_free (pool_of_region r))
                 (repeat 0 (N.to_nat (N.of_nat (length (p_bitmap (pool_of_region r)))))))
        with (pool_of_region r)
        by (rewrite Nat2N.id; cbn [pool_of_region p_start p_end p_free p_bitmap]; rewrite repeat_length; reflexivity).
      replace (map pool_of_region done ++ [pool_of_region r]) with (map pool_of_region (done ++ [r]))
        by (rewrite map_app; reflexivity).
      replace (w64 (N.of_nat (length done) + 1)) with (N.of_nat (length (done ++ [r])))
        by (rewrite app_length; cbn [length]; rewrite w64_small by (unfold two64 in *; lia); lia).
      rewrite IH; [| apply w64_lt | lia | rewrite app_length; cbn [length]; lia ].
      rewrite w64_add_l.
      replace (bitmap_total' (r :: filter pool_region m)) with (bitmap_bytes r + bitmap_total' (filter pool_region m))
        by (unfold bitmap_total'; cbn [fold_left]; rewrite (fold_bytes_shift _ (0 + bitmap_bytes r)); unfold bitmap_total'; lia).
      rewrite N.add_assoc. rewrite <- app_assoc. cbn [app length Nat.sub]. rewrite app_length. cbn [length].
      replace (length done + 1 + length (filter pool_region m))%nat with (length done + S (length (filter pool_region m)))%nat by lia.
      reflexivity.
    + rewrite Nat2N.id.
      replace (mkPool 0 0 0 (repeat 0 (N.to_nat 0))) with zero_pool by reflexivity.
      rewrite update_pool_zero_noop
        by (pose proof (pool_at_zero done k) as Hz; unfold pool_at in Hz; rewrite Nat2N.id in Hz; exact Hz).
      apply IH; assumption.
Qed.

(** ---- the fragments in the order setupPoolBitmaps runs them ---- *)
(** [data] is the address reserveRegionFn returned (the reserve / map / memset loop in between is not translated).
    Result: the allocator record after pass 1 (totalPages), poolsHdr.Len, requiredBytes, requiredPages, the pools that
    pass 2 fills in, and the address behind the last bitmap. *)
Definition go_setup_sizes (ga : go_pmm_BitmapAllocator) (gs : list go_multiboot_MemoryMapEntry) (data : N)
  : gres (go_pmm_BitmapAllocator * N * N * N * list pool * N) :=
  match go_pass1_all ga gs 0 0 0 with
  | GOk (ga1, len, _, req) =>
      match go_pmm_BitmapAllocator_setupPoolBitmaps_required ga1 pmask pmm_sizeofFramePool len req with
      | GOk (ga2, bytes, pages) =>
          match go_pmm_BitmapAllocator_setupPoolBitmaps_layout ga2 pmm_sizeofFramePool len data with
          | GOk (ga3, bsa0) =>
              match go_pass2_all ga3 gs bsa0 0 (repeat zero_pool (N.to_nat len)) with
              | GOk (bsa', _, pools) => GOk (ga3, len, bytes, pages, pools, bsa')
              | GPanic => GPanic
              | GFuel => GFuel
              end
          | GPanic => GPanic
          | GFuel => GFuel
          end
      | GPanic => GPanic
      | GFuel => GFuel
      end
  | GPanic => GPanic
  | GFuel => GFuel
  end.

Lemma filter_len_le {A} (f : A -> bool) : forall l, (length (filter f l) <= length l)%nat.
Proof. induction l as [|x l IH]; cbn [filter length]; [lia|]. destruct (f x); cbn [length]; lia. Qed.

Theorem setup_sizes_is_model mtx a tr (m : memmap) (data : N) :
  N.of_nat (length m) < two64 ->
  go_setup_sizes (to_ga mtx a tr) (map to_gr m) data =
  let '(np, total, req) := pass1 m (a_total a) in
  GOk (to_ga mtx (mkBA total (a_reserved a) (a_pools a)) tr, np,
       required_bytes np req, N.shiftr (required_bytes np req) PageShift,
       pass2 m, w64 (data + layout_bytes m np)).
Proof.
  intros Hm. unfold go_setup_sizes.
  rewrite (pass1_all_is_fold mtx tr m a 0 0) by lia.
  pose proof (pass1_npools m (a_total a)) as Hnp. unfold pass1 in *.
  destruct (fold_left pass1_step m (0, a_total a, 0)) as [[np total] req]. cbn [fst] in Hnp.
  rewrite required_is_translation, layout_is_translation.
  assert (Hk : N.to_nat np = length (filter pool_region m))
    by (rewrite Hnp; unfold pass2; rewrite map_length; apply Nat2N.id).
  rewrite Hk.
  pose proof (filter_len_le pool_region m) as Hle.
  rewrite (pass2_all_is_model _ m [] (w64 (data + np * pmm_sizeofFramePool)) (length (filter pool_region m)));
    [| apply w64_lt | lia | cbn [length]; lia].
  cbn [app length map]. rewrite Nat.sub_diag. cbn [repeat]. rewrite app_nil_r.
  rewrite w64_add_l. unfold layout_bytes, pass2. rewrite (fold_bytes_shift _ 0). rewrite N.add_0_l.
  rewrite N.add_assoc. reflexivity.
Qed.

(** with that set-up as the answer of the oracle, the translated BitmapAllocator.init is the model's pmm_init:
    [b] is the boot allocator after the state area was mapped (the model's [map_pages]) *)
Theorem init_with_model_setup (ga : go_pmm_BitmapAllocator) (gb : go_pmm_BootMemAllocator)
        (o : go_pmm_BitmapAllocator -> go_pmm_BootMemAllocator -> go_pmm_BitmapAllocator * go_pmm_BootMemAllocator * option string)
        mtx tr0 ka kb (m : memmap) (kstart kend limit mapfail : N) (b : bstate) (calls : list mapcall) fuel :
  let ks := kernel_start_frame kstart in
  let ke := kernel_end_frame kend in
  let npools := fst (fst (pass1 m 0)) in
  let total := snd (fst (pass1 m 0)) in
  let bytes := required_bytes npools (snd (pass1 m 0)) in
  (limit <? bytes) = false ->
  map_pages m ks ke (N.shiftr bytes PageShift) mapfail = MGo b calls ->
  (bytes <? layout_bytes m npools) = false ->
  o (set_f_BitmapAllocator_trace ga (ev_setup :: f_BitmapAllocator_trace ga)) gb =
    (to_ga mtx (mkBA total 0 (pass2 m)) tr0, to_gb ka kb ks ke b, None) ->
  N.of_nat (length (pass2 m)) < two63 -> (length (pass2 m) < fuel)%nat ->
  ke < max64 -> (N.to_nat (ke + 1 - ks) < fuel)%nat ->
  b_count b < two64 -> (N.to_nat (b_count b) < fuel)%nat ->
  go_pmm_BitmapAllocator_init fuel ga gb o (map to_gr m) =
  match fst (pmm_init m kstart kend limit mapfail) with
  | InitOk a2 b' => GOk (to_ga mtx a2 (ev_stats :: tr0), (None, to_gb ka kb ks ke b'))
  | InitPanic => GPanic
  | InitHang => GFuel
  | _ => GPanic
  end.
Proof.
  cbv zeta. intros H1 H2 H4 Ho Hl Hf Hke Hn Hc Hcn.
  pose proof (pmm_init_tail m kstart kend limit mapfail b calls) as Ht. cbv zeta in Ht.
  rewrite (Ht H1 H2) by (try exact H4; rewrite pass1_npools; apply N.eqb_refl).
  rewrite (init_is_translation ga gb o mtx (mkBA (snd (fst (pass1 m 0))) 0 (pass2 m)) tr0 ka kb
             (kernel_start_frame kstart) (kernel_end_frame kend) b None m fuel Ho) by assumption.
  destruct (init_tail m _ _ _ b) as [[a2 b']| |]; reflexivity.
Qed.
