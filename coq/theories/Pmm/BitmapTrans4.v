(** Bitmap frame allocator, tie by translation, fourth part: the SIZING arithmetic of
    BitmapAllocator.setupPoolBitmaps (kernel/mm/pmm/bitmap_allocator.go).  The function as a whole is outside
    gen/gotrans's subset (unsafe slice-header overlays); config "fragments" (gen/gotrans/ext_frag.go) translates
      pass1    - the body of the first closure passed to multiboot.VisitMemRegions (pool count, totalPages, bitmap bytes),
      required - `requiredBytes := (..) & ^pageSizeMinus1; requiredPages := requiredBytes >> mm.PageShift`,
      layout   - `bitmapStartAddr := alloc.poolsHdr.Data + uintptr(alloc.poolsHdr.Len)*sizeofPool`,
      pass2    - the body of the second closure (per-pool start / end frame, freeCount, bitmap words, bitmap addresses),
    with the slice-header fields and the fields of alloc.pools[poolIndex] renamed to variables.  They are proved equal to
    the model's [pass1_step], [required_bytes], [pool_region] / [pool_of_region] / [bitmap_bytes] (Pmm/Bitmap.v), the
    functions [pmm_init] builds the pools with. *)
From Coq Require Import NArith ZArith String List Bool Lia.
From Coq Require Import ZifyBool ZifyN ZifyNat.
From FF Require Import Lib.Word Lib.GoOps Lib.GoOpsExt Lib.GoOpsProofs Lib.GoVisit Gen.Consts_mm_pmm Gen.Trans_pmm_bitmap.
From FF Require Import Pmm.Boot Pmm.Bitmap Pmm.BitmapTrans Pmm.BitmapTrans3.
From FF Require Pmm.BootTrans.
Import ListNotations.
Local Open Scope N_scope.

Lemma gw_idem x : gw 64 (gw 64 x) = gw 64 x.
Proof. unfold gw. apply N.mod_mod. discriminate. Qed.

Lemma gw_add_l a b : gw 64 (gw 64 a + b) = gw 64 (a + b).
Proof. unfold gw. apply N.add_mod_idemp_l. discriminate. Qed.

Lemma gw_add_r a b : gw 64 (a + gw 64 b) = gw 64 (a + b).
Proof. unfold gw. apply N.add_mod_idemp_r. discriminate. Qed.

Lemma gw_mul_l a b : gw 64 (gw 64 a * b) = gw 64 (a * b).
Proof. unfold gw. apply N.mul_mod_idemp_l. discriminate. Qed.

(** the two frame numbers of a region as both closures compute them *)
Lemma go_region_start r :
  gw 64 (N.shiftr (N.land (gw 64 (gw 64 (r_addr r) + pmask)) (gnot 64 pmask)) mm_PageShift) = region_start_frame r.
Proof. rewrite gw_add_l. apply BootTrans.go_frame_down_w. Qed.

Lemma go_region_end r :
  gsub 64 (gw 64 (N.shiftr (N.land (gw 64 (gw 64 (r_addr r + r_len r))) (gnot 64 pmask)) mm_PageShift)) 1 = region_end_frame r.
Proof. rewrite gw_idem. rewrite BootTrans.go_frame_down_w. reflexivity. Qed.

Lemma region_frames_eq r :
  gw 64 (gsub 64 (region_end_frame r) (region_start_frame r) + 1) = region_frames r.
Proof. reflexivity. Qed.

Lemma shift_small x : x < two64 -> gw 64 (N.shiftr (N.ldiff x 63) 3) = N.shiftr (N.ldiff x 63) 3.
Proof.
  intros H. apply gw64_small. change 63 with (2 ^ 6 - 1). fold (andnot x (2 ^ 6 - 1)). rewrite andnot_pow2.
  rewrite N.shiftr_div_pow2. change (2 ^ 6) with 64. change (2 ^ 3) with 8. unfold two64 in *. lia.
Qed.

Ltac gsimp :=
  cbn [to_ga to_gr a_total a_reserved a_pools r_addr r_len r_type
       f_BitmapAllocator_totalPages set_f_BitmapAllocator_totalPages f_BitmapAllocator_mutex f_BitmapAllocator_reservedPages
       f_BitmapAllocator_pools f_BitmapAllocator_trace
       f_MemoryMapEntry_PhysAddress f_MemoryMapEntry_Length f_MemoryMapEntry_Type].

(** ---- pass 1 ---- *)
Theorem pass1_is_translation mtx a tr (npools cap req : N) (r : region) :
  npools + 1 < two64 ->
  go_pmm_BitmapAllocator_setupPoolBitmaps_pass1 (to_ga mtx a tr) pmask npools cap req (to_gr r) =
  let '(np', total', req') := pass1_step (npools, a_total a, req) r in
  GOk ((to_ga mtx (mkBA total' (a_reserved a) (a_pools a)) tr, np',
        (if pool_region r then gw 64 (cap + 1) else cap), req'), true).
Proof.
  intros Hn. unfold go_pmm_BitmapAllocator_setupPoolBitmaps_pass1. cbv zeta. gsimp.
  rewrite go_region_start, go_region_end. rewrite region_frames_eq.
  unfold pass1_step, pool_region, is_avail.
  destruct (r_type r =? multiboot_MemAvailable); cbn [negb andb]; [|destruct a; reflexivity].
  change (gw 64 (region_end_frame r + 1)) with (w64 (region_end_frame r + 1)).
  destruct (w64 (region_end_frame r + 1) <=? region_start_frame r); cbn [negb]; [destruct a; reflexivity|].
  rewrite (gw64_small (npools + 1) Hn).
  rewrite shift_small by (change (gw 32) with w32; pose proof (w32_lt (w32 (region_frames r) + 63)); unfold two32, two64 in *; lia).
  reflexivity.
Qed.

(** ---- required bytes / pages ---- *)
Theorem required_is_translation (ga : go_pmm_BitmapAllocator) (npools req : N) :
  go_pmm_BitmapAllocator_setupPoolBitmaps_required ga pmask pmm_sizeofFramePool npools req =
  GOk (ga, required_bytes npools req, N.shiftr (required_bytes npools req) PageShift).
Proof.
  unfold go_pmm_BitmapAllocator_setupPoolBitmaps_required. cbv zeta.
  rewrite gw_mul_l, gw_add_r, gw_add_l.
  rewrite land_gnot64 by (try apply BootTrans.pmask_lt; rewrite gw64; apply w64_lt).
  assert (E : gw 64 (gw 64 (npools * pmm_sizeofFramePool) + req + pmask) =
              w64 (w64 (npools * pmm_sizeofFramePool) + req + pmask)) by reflexivity.
  rewrite E. reflexivity.
Qed.

(** ---- where the bitmaps start ---- *)
Theorem layout_is_translation (ga : go_pmm_BitmapAllocator) (npools data : N) :
  go_pmm_BitmapAllocator_setupPoolBitmaps_layout ga pmm_sizeofFramePool npools data =
  GOk (ga, w64 (data + npools * pmm_sizeofFramePool)).
Proof.
  unfold go_pmm_BitmapAllocator_setupPoolBitmaps_layout. cbv zeta.
  rewrite gw_mul_l, gw_add_r. reflexivity.
Qed.

(** ---- pass 2 ---- *)
Lemma bitmap_bytes_lt r : bitmap_bytes r < 2 ^ 61.
Proof.
  unfold bitmap_bytes. generalize (w64 (region_frames r + 63)) (w64_lt (region_frames r + 63)). intros x Hx.
  change 63 with (2 ^ 6 - 1). rewrite andnot_pow2. rewrite N.shiftr_div_pow2.
  change (2 ^ 6) with 64. change (2 ^ 3) with 8.
  change (2 ^ 61) with 2305843009213693952. unfold two64 in *. lia.
Qed.

Lemma pool_words r : N.of_nat (length (p_bitmap (pool_of_region r))) = N.shiftr (bitmap_bytes r) 3.
Proof. cbn [pool_of_region p_bitmap]. rewrite repeat_length. apply N2Nat.id. Qed.

Theorem pass2_is_translation (ga : go_pmm_BitmapAllocator) (bsa pi ps pe pf bl bc bd : N) (r : region) :
  go_pmm_BitmapAllocator_setupPoolBitmaps_pass2 ga pmask bsa pi ps pe pf bl bc bd (to_gr r) =
  if pool_region r
  then GOk ((ga, w64 (bsa + bitmap_bytes r), w64 (pi + 1),
             p_start (pool_of_region r), p_end (pool_of_region r), p_free (pool_of_region r),
             N.of_nat (length (p_bitmap (pool_of_region r))), N.of_nat (length (p_bitmap (pool_of_region r))), bsa), true)
  else GOk ((ga, bsa, pi, ps, pe, pf, bl, bc, bd), true).
Proof.
  unfold go_pmm_BitmapAllocator_setupPoolBitmaps_pass2. cbv zeta. gsimp.
  rewrite go_region_start, go_region_end. rewrite region_frames_eq.
  unfold pool_region, is_avail.
  destruct (r_type r =? multiboot_MemAvailable); cbn [negb andb]; [|reflexivity].
  change (gw 64 (region_end_frame r + 1)) with (w64 (region_end_frame r + 1)).
  destruct (w64 (region_end_frame r + 1) <=? region_start_frame r); cbn [negb]; [reflexivity|].
  rewrite pool_words. rewrite !gw_add_l.
  change (N.shiftr (N.ldiff (gw 64 (region_frames r + 63)) 63) 3) with (bitmap_bytes r).
  rewrite (gw64_small (N.shiftr (bitmap_bytes r) 3))
    by (pose proof (bitmap_bytes_lt r); rewrite N.shiftr_div_pow2; change (2 ^ 3) with 8;
        change (2 ^ 61) with 2305843009213693952 in *; unfold two64; lia).
  reflexivity.
Qed.
