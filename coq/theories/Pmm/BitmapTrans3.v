(** Bitmap frame allocator, tie by translation, third part: reserveEarlyAllocatorFrames, the hand-over
    from the early-boot allocator - the cooperation of bitmap_allocator.go and bootmem_allocator.go.

    Go:   allocCount := bootMemAllocator.allocCount
          bootMemAllocator.allocCount, bootMemAllocator.lastAllocFrame = 0, 0
          for i := uint64(0); i < allocCount; i++ {
              frame, _ := bootMemAllocator.AllocFrame()
              alloc.markFrame(alloc.poolForFrame(frame), frame, markReserved) }

    gen/gotrans (config "gstructs", ext_gstruct.go) threads the package-level struct [bootMemAllocator] through the
    function as an in/out record next to the receiver; its AllocFrame is the translation of
    BootMemAllocator.AllocFrame inside the same generated file (the closure passed to multiboot.VisitMemRegions is a
    [gvisit] over the extra parameter [regions], config "visitors"), shown equal to the model's [boot_alloc] here
    for this copy (Pmm/BootTrans.v does it for C02's copy in Gen/Trans_pmm_boot.v).
    The model is [reserve_early] of Pmm/Bitmap.v - the function [pmm_init] runs and the init theorems are about. *)
From Coq Require Import NArith ZArith String List Bool Lia.
From Coq Require Import ZifyBool ZifyN ZifyNat.
From FF Require Import Lib.Word Lib.GoOps Lib.GoOpsExt Lib.GoOpsProofs Lib.GoVisit Gen.Consts_mm_pmm Gen.Trans_pmm_bitmap.
From FF Require Import Pmm.Boot Pmm.Bitmap Pmm.Bits Pmm.BitmapTrans Pmm.BitmapTrans2.
From FF Require Pmm.BootTrans.
Import ListNotations.
Local Open Scope N_scope.

(** ---- the boot allocator's record and the memory-map entries ---- *)
Definition to_gr (r : region) : go_multiboot_MemoryMapEntry :=
  mk_go_multiboot_MemoryMapEntry (r_addr r) (r_len r) (r_type r).

Definition to_gb (ka kb ks ke : N) (st : bstate) : go_pmm_BootMemAllocator :=
  mk_go_pmm_BootMemAllocator (b_count st) (b_last st) ka kb ks ke.

Lemma to_gr_list_onto (gs : list go_multiboot_MemoryMapEntry) : exists m, gs = map to_gr m.
Proof.
  induction gs as [|[a l t] gs [m ->]]; [exists []; reflexivity|]. exists (mkRegion a l t :: m). reflexivity.
Qed.

Lemma to_gb_onto (g : go_pmm_BootMemAllocator) : exists ka kb ks ke st, g = to_gb ka kb ks ke st.
Proof. destruct g as [c l ka kb ks ke]. exists ka, kb, ks, ke, (mkB c l). reflexivity. Qed.

Ltac bsimp :=
  cbn [to_gb to_gr b_count b_last r_addr r_len r_type
       f_BootMemAllocator_allocCount f_BootMemAllocator_lastAllocFrame f_BootMemAllocator_kernelStartAddr
       f_BootMemAllocator_kernelEndAddr f_BootMemAllocator_kernelStartFrame f_BootMemAllocator_kernelEndFrame
       set_f_BootMemAllocator_allocCount set_f_BootMemAllocator_lastAllocFrame set_f_BootMemAllocator_kernelStartAddr
       set_f_BootMemAllocator_kernelEndAddr set_f_BootMemAllocator_kernelStartFrame set_f_BootMemAllocator_kernelEndFrame
       f_MemoryMapEntry_PhysAddress f_MemoryMapEntry_Length f_MemoryMapEntry_Type].

Definition go_result (res : option N) : N * option string :=
  match res with Some f => (f, None) | None => (mm_InvalidFrame, Some "errBootAllocOutOfMemory"%string) end.

(** BootMemAllocator.AllocFrame as translated into Gen/Trans_pmm_bitmap.v = [boot_alloc] *)
Theorem bootAllocFrame_is_translation : forall (ka kb ks ke : N) (st : bstate) (m : memmap),
  go_pmm_BootMemAllocator_AllocFrame (to_gb ka kb ks ke st) (map to_gr m) =
  GOk (to_gb ka kb ks ke (fst (boot_alloc m ks ke st)), go_result (snd (boot_alloc m ks ke st))).
Proof.
  intros ka kb ks ke [count last] m. unfold go_pmm_BootMemAllocator_AllocFrame. cbv zeta.
  rewrite (BootTrans.scan_is_gvisit to_gr (fun l => to_gb ka kb ks ke (mkB count l)) ks ke count).
  - unfold boot_alloc. cbn [b_count b_last].
    destruct (boot_scan ks ke count last m) as [l [|]]; cbn [fst snd BootTrans.err_after gerr_eqb negb]; bsimp; reflexivity.
  - intros r lst err. bsimp.
    rewrite BootTrans.go_pagesize, BootTrans.go_pmask'. rewrite !BootTrans.go_frame_down_w.
    rewrite !BootTrans.gsub64_sub64. change (gw 64) with w64.
    exact (BootTrans.visit_cases (fun l stop => GOk ((to_gb ka kb ks ke (mkB count l), BootTrans.err_after stop err), negb stop))
             ks ke count lst r).
Qed.

(** ---- the replay loop ---- *)
Definition next_frame (m : memmap) (ks ke : N) (b : bstate) : N :=
  match snd (boot_alloc m ks ke b) with Some f => f | None => mm_InvalidFrame end.

(** the loop as Go runs it: allocate from the boot allocator, mark the frame in the bitmap; a panic ends it *)
Fixpoint eloop (m : memmap) (ks ke : N) (n : nat) (b : bstate) (a : balloc) : outcome (bstate * balloc) :=
  match n with
  | O => Ok (b, a)
  | S n' =>
      match mark_reserved a (pool_for_frame a (next_frame m ks ke b)) (next_frame m ks ke b) with
      | Ok a1 => eloop m ks ke n' (fst (boot_alloc m ks ke b)) a1
      | Panic => Panic
      | Hang => Hang
      end
  end.

Section Replay.
  Variables (mtx : bool) (tr : list gevent) (ka kb ks ke : N) (m : memmap) (count : N) (np : nat).
  Variable step : go_pmm_BitmapAllocator * go_pmm_BootMemAllocator * N ->
                  gres (gctl (go_pmm_BitmapAllocator * go_pmm_BootMemAllocator * N) (go_pmm_BitmapAllocator * go_pmm_BootMemAllocator)).
  Hypothesis Hcount : count < two64.
  (** one iteration of the translated loop, in the model's terms *)
  Hypothesis Hstep : forall a b i, length (a_pools a) = np ->
    step (to_ga mtx a tr, to_gb ka kb ks ke b, i) =
    if i <? count
    then match mark_reserved a (pool_for_frame a (next_frame m ks ke b)) (next_frame m ks ke b) with
         | Ok a1 => GOk (GNext (to_ga mtx a1 tr, to_gb ka kb ks ke (fst (boot_alloc m ks ke b)), gw 64 (i + 1)))
         | Panic => GPanic
         | Hang => GFuel
         end
    else GOk (GBreak (to_ga mtx a tr, to_gb ka kb ks ke b, i)).

  Lemma eloop_is_gloop : forall n lf i a b, (n < lf)%nat -> length (a_pools a) = np -> i + N.of_nat n = count ->
    gloop lf step (to_ga mtx a tr, to_gb ka kb ks ke b, i) =
    match eloop m ks ke n b a with
    | Ok (b', a') => GOk (inl (to_ga mtx a' tr, to_gb ka kb ks ke b', count))
    | Panic => GPanic
    | Hang => GFuel
    end.
  Proof.
    induction n as [|n IH]; intros lf i a b Hf Hl E.
    - destruct lf as [|lf]; [lia|]. cbn [gloop eloop]. rewrite (Hstep a b i Hl).
      replace (i <? count) with false by lia. replace i with count by lia. reflexivity.
    - destruct lf as [|lf]; [lia|]. cbn [gloop eloop]. rewrite (Hstep a b i Hl).
      replace (i <? count) with true by lia.
      destruct (mark_reserved a _ _) as [a1| |] eqn:Em; [|reflexivity|reflexivity].
      rewrite (gw64_small (i + 1)) by (unfold two64 in *; lia).
      apply IH; [lia| |lia]. rewrite (mark_reserved_length _ _ _ _ Em). exact Hl.
  Qed.
End Replay.

(** [reserve_early] of Pmm/Bitmap.v iterates a step with a sticky outcome *)
Definition eF (m : memmap) (ks ke : N) (st : bstate * outcome balloc) : bstate * outcome balloc :=
  let '(b, o) := st in
  let '(b', r) := boot_alloc m ks ke b in
  let f := match r with Some f => f | None => mm_InvalidFrame end in
  (b', obind o (fun a' => mark_reserved a' (pool_for_frame a' f) f)).

Lemma eF_eloop m ks ke : forall n b a,
  match eloop m ks ke n b a with
  | Ok (b', a') => Nat.iter n (eF m ks ke) (b, Ok a) = (b', Ok a')
  | Panic => snd (Nat.iter n (eF m ks ke) (b, Ok a)) = Panic
  | Hang => snd (Nat.iter n (eF m ks ke) (b, Ok a)) = Hang
  end.
Proof.
  induction n as [|n IH]; intros b a; [reflexivity|].
  rewrite iter_succ_r'. cbn [eloop]. unfold next_frame.
  assert (E : eF m ks ke (b, Ok a) =
              (fst (boot_alloc m ks ke b),
               mark_reserved a (pool_for_frame a (match snd (boot_alloc m ks ke b) with Some f => f | None => mm_InvalidFrame end))
                 (match snd (boot_alloc m ks ke b) with Some f => f | None => mm_InvalidFrame end)))
    by (unfold eF; destruct (boot_alloc m ks ke b) as [b' r]; reflexivity).
  rewrite E.
  destruct (mark_reserved a _ _) as [a1| |].
  - apply IH.
  - apply iter_sticky. intros s. unfold eF. destruct (boot_alloc m ks ke s). reflexivity.
  - apply iter_sticky. intros s. unfold eF. destruct (boot_alloc m ks ke s). reflexivity.
Qed.

Lemma reserve_early_eF m ks ke a bst :
  reserve_early m ks ke a bst = Nat.iter (N.to_nat (b_count bst)) (eF m ks ke) (boot_reset, Ok a).
Proof. unfold reserve_early. rewrite N2Nat.inj_iter. reflexivity. Qed.

Definition early_res mtx tr ka kb ks ke (r : bstate * outcome balloc) : gres (go_pmm_BitmapAllocator * go_pmm_BootMemAllocator) :=
  match r with
  | (b', Ok a') => GOk (to_ga mtx a' tr, to_gb ka kb ks ke b')
  | (_, Panic) => GPanic
  | (_, Hang) => GFuel
  end.

Theorem reserveEarlyAllocatorFrames_is_translation mtx a tr ka kb ks ke bst m fuel :
  N.of_nat (length (a_pools a)) < two63 -> (length (a_pools a) < fuel)%nat ->
  b_count bst < two64 -> (N.to_nat (b_count bst) < fuel)%nat ->
  go_pmm_BitmapAllocator_reserveEarlyAllocatorFrames fuel (to_ga mtx a tr) (to_gb ka kb ks ke bst) (map to_gr m) =
  early_res mtx tr ka kb ks ke (reserve_early m ks ke a bst).
Proof.
  intros Hl Hf Hc Hn. unfold go_pmm_BitmapAllocator_reserveEarlyAllocatorFrames. cbv zeta. bsimp.
  change (gw 64 0) with 0.
  change (set_f_BootMemAllocator_lastAllocFrame (set_f_BootMemAllocator_allocCount (to_gb ka kb ks ke bst) 0) 0)
    with (to_gb ka kb ks ke boot_reset).
  rewrite (eloop_is_gloop mtx tr ka kb ks ke m (b_count bst) (length (a_pools a)) _ Hc) with (n := N.to_nat (b_count bst));
    [| |exact Hn|reflexivity|lia].
  - rewrite reserve_early_eF.
    pose proof (eF_eloop m ks ke (N.to_nat (b_count bst)) boot_reset a) as H.
    destruct (eloop m ks ke (N.to_nat (b_count bst)) boot_reset a) as [[b' a']| |].
    + rewrite H. reflexivity.
    + destruct (Nat.iter _ _ _) as [b1 o1]. cbn [snd] in H. subst o1. reflexivity.
    + destruct (Nat.iter _ _ _) as [b1 o1]. cbn [snd] in H. subst o1. reflexivity.
  - (* one iteration *)
    intros a0 b i Hl0. cbn beta iota.
    destruct (i <? b_count bst); [|reflexivity].
    rewrite bootAllocFrame_is_translation. unfold next_frame, go_result.
    destruct (snd (boot_alloc m ks ke b)) as [f|]; cbn beta iota.
    all: rewrite (poolForFrame_is_translation mtx a0 tr _ fuel) by lia.
    all: match goal with |- context[go_pmm_BitmapAllocator_markFrame _ (idx_of (pool_for_frame ?a1 ?f)) _ false] =>
           rewrite (markFrame_reserved_is_translation mtx a1 tr (pool_for_frame a1 f) f);
             [| lia | intros j Ej; pose proof (pool_for_frame_lt _ _ _ Ej); lia]
         end.
    all: destruct (mark_reserved a0 _ _); reflexivity.
Qed.

(** ---- BitmapAllocator.init: the glue ---- *)
(** Go:  if err := alloc.setupPoolBitmaps(); err != nil { return err }
         alloc.reserveKernelFrames(); alloc.reserveEarlyAllocatorFrames(); alloc.printStats(); return nil
    setupPoolBitmaps (unsafe slice headers) and printStats (kfmt) are not translated: config "opaquecalls" records them as
    events on the allocator's trace; setupPoolBitmaps' effect on the two structs and its error come from the oracle
    [o_setupPoolBitmaps].  What follows a successful setup is the tail of the model's [pmm_init]. *)
Definition init_tail (m : memmap) (ks ke : N) (a0 : balloc) (b : bstate) : outcome (balloc * bstate) :=
  match reserve_kernel a0 ks ke with
  | Panic => Panic
  | Hang => Hang
  | Ok a1 =>
      match reserve_early m ks ke a1 b with
      | (_, Panic) => Panic
      | (_, Hang) => Hang
      | (b', Ok a2) => Ok (a2, b')
      end
  end.

Definition tail_result (o : outcome (balloc * bstate)) : init_result :=
  match o with Ok (a, b) => InitOk a b | Panic => InitPanic | Hang => InitHang end.

(** [pmm_init] = its set-up part (pass 1, the mapping loop, pass 2: the model of setupPoolBitmaps), then [init_tail] *)
Lemma pmm_init_tail m kstart kend limit mapfail b calls :
  let ks := kernel_start_frame kstart in
  let ke := kernel_end_frame kend in
  let npools := fst (fst (pass1 m 0)) in
  let total := snd (fst (pass1 m 0)) in
  let bytes := required_bytes npools (snd (pass1 m 0)) in
  (limit <? bytes) = false ->
  map_pages m ks ke (N.shiftr bytes PageShift) mapfail = MGo b calls ->
  (N.of_nat (length (pass2 m)) =? npools) = true ->
  (bytes <? layout_bytes m npools) = false ->
  fst (pmm_init m kstart kend limit mapfail) = tail_result (init_tail m ks ke (mkBA total 0 (pass2 m)) b).
Proof.
  cbv zeta. unfold pmm_init. destruct (pass1 m 0) as [[npools total] req]. cbn [fst snd].
  intros H1 H2 H3 H4. rewrite H1, H2, H3, H4. cbn [negb]. unfold init_tail.
  destruct (reserve_kernel _ _ _) as [a1| |]; try reflexivity.
  destruct (reserve_early _ _ _ _ _) as [b' [a2| |]]; reflexivity.
Qed.

Lemma kloop_length pi : forall n f a a', kloop pi n f a = Ok a' -> length (a_pools a') = length (a_pools a).
Proof.
  induction n as [|n IH]; intros f a a' H; cbn [kloop] in H; [injection H as <-; reflexivity|].
  destruct (mark_reserved a pi f) as [a1| |] eqn:Em; try discriminate.
  rewrite (IH _ _ _ H). apply (mark_reserved_length _ _ _ _ Em).
Qed.

Lemma reserve_kernel_length a ks ke a1 : ke < max64 -> reserve_kernel a ks ke = Ok a1 ->
  length (a_pools a1) = length (a_pools a).
Proof. intros Hke H. rewrite (reserve_kernel_kloop a ks ke Hke) in H. apply (kloop_length _ _ _ _ _ H). Qed.

Definition ev_setup : gevent := GEv "setupPoolBitmaps" [].
Definition ev_stats : gevent := GEv "printStats" [].

Definition init_res mtx tr ka kb ks ke (o : outcome (balloc * bstate)) : gres (go_pmm_BitmapAllocator * (option string * go_pmm_BootMemAllocator)) :=
  match o with
  | Ok (a2, b') => GOk (to_ga mtx a2 (ev_stats :: tr), (None, to_gb ka kb ks ke b'))
  | Panic => GPanic
  | Hang => GFuel
  end.

Theorem init_is_translation (ga : go_pmm_BitmapAllocator) (gb : go_pmm_BootMemAllocator)
        (o : go_pmm_BitmapAllocator -> go_pmm_BootMemAllocator -> go_pmm_BitmapAllocator * go_pmm_BootMemAllocator * option string)
        mtx a0 tr0 ka kb ks ke b0 err m fuel :
  o (set_f_BitmapAllocator_trace ga (ev_setup :: f_BitmapAllocator_trace ga)) gb = (to_ga mtx a0 tr0, to_gb ka kb ks ke b0, err) ->
  N.of_nat (length (a_pools a0)) < two63 -> (length (a_pools a0) < fuel)%nat ->
  ke < max64 -> (N.to_nat (ke + 1 - ks) < fuel)%nat ->
  b_count b0 < two64 -> (N.to_nat (b_count b0) < fuel)%nat ->
  go_pmm_BitmapAllocator_init fuel ga gb o (map to_gr m) =
  match err with
  | Some e => GOk (to_ga mtx a0 tr0, (Some e, to_gb ka kb ks ke b0))
  | None => init_res mtx tr0 ka kb ks ke (init_tail m ks ke a0 b0)
  end.
Proof.
  intros Ho Hl Hf Hke Hn Hc Hcn. unfold go_pmm_BitmapAllocator_init. cbv zeta.
  change (GEv "setupPoolBitmaps" nil) with ev_setup. rewrite Ho.
  destruct err as [e|]; [reflexivity|]. cbn [gerr_eqb negb]. bsimp.
  rewrite (reserveKernelFrames_is_translation mtx a0 tr0 ks ke fuel Hl Hf Hke Hn).
  unfold init_tail. destruct (reserve_kernel a0 ks ke) as [a1| |] eqn:Ek; cbn [mark_res]; [|reflexivity|reflexivity].
  pose proof (reserve_kernel_length _ _ _ _ Hke Ek) as Hl1.
  rewrite (reserveEarlyAllocatorFrames_is_translation mtx a1 tr0 ka kb ks ke b0 m fuel) by (rewrite ?Hl1; assumption).
  destruct (reserve_early m ks ke a1 b0) as [b' [a2| |]]; reflexivity.
Qed.
