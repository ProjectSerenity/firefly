(** pmm.Init establishes the representation invariant (C01/C03): pool construction, kernel-image
    reservation, replay of the early-boot allocations. *)
From Coq Require Import NArith ZArith Lia List Bool Sorted.
From Coq Require Import ZifyBool ZifyN ZifyNat.
From FF Require Import Lib.Word Gen.Consts_mm_pmm Pmm.Boot Pmm.BootProofs Pmm.Bitmap Pmm.Bits Pmm.BitmapProofs Pmm.HistoryProofs.
Import ListNotations.
Local Open Scope N_scope.

Lemma sizeofFramePool_val : pmm_sizeofFramePool = 72. Proof. reflexivity. Qed.

(** ---- one region ---- *)
Lemma region_frames_facts r :
  WFregion r ->
  region_start_frame r = RS r /\
  pool_region r = is_avail r && (RS r <? RE1 r) /\
  (RS r < RE1 r -> region_end_frame r = RE1 r - 1 /\ region_frames r = RE1 r - RS r).
Proof.
  intros Hwf. pose proof (region_start_frame_eq r Hwf) as Hs.
  pose proof (RS_bounds r) as Brs. pose proof (RE1_bounds r) as Bre. unfold WFregion, two64 in Hwf.
  split; [assumption|]. split.
  - unfold pool_region. rewrite Hs. f_equal.
    destruct (N.eq_dec (RE1 r) 0) as [E|E].
    + (* no whole frame below the end: the end frame wraps to 2^64-1, and the Go test sees 0 <= start *)
      assert (He: region_end_frame r = max64).
      { unfold region_end_frame. rewrite w64_small, frame_down_eq by (unfold two64; lia). fold (RE1 r). rewrite E. reflexivity. }
      rewrite He, E. change (w64 (max64 + 1)) with 0. lia.
    + rewrite region_end_frame_eq by (assumption || lia).
      replace (RE1 r - 1 + 1) with (RE1 r) by lia. rewrite w64_small by (unfold two64; lia). lia.
  - intros Hlt. rewrite <- Hs. unfold region_frames.
    rewrite region_end_frame_eq by (assumption || lia). split; [reflexivity|]. rewrite Hs.
    rewrite sub64_small by (unfold two64; lia).
    replace (RE1 r - 1 - RS r + 1) with (RE1 r - RS r) by lia. apply w64_small. unfold two64. lia.
Qed.

(** [(x & ^63) >> 3]: the bytes of [x / 64] words of 64 bits (the Go code passes the bit count plus 63) *)
Lemma round64_bytes x : N.shiftr (andnot x 63) 3 = x / 64 * 8.
Proof.
  change 63 with (2 ^ 6 - 1). rewrite andnot_pow2, N.shiftr_div_pow2. change (2 ^ 6) with 64. change (2 ^ 3) with 8. lia.
Qed.

Definition nfr (r : region) : N := RE1 r - RS r.

Fixpoint total_frames (m : memmap) : N :=
  match m with [] => 0 | r :: rest => (if pool_region r then nfr r else 0) + total_frames rest end.

Fixpoint bitmap_total (m : memmap) : N :=
  match m with [] => 0 | r :: rest => (if pool_region r then (nfr r + 63) / 64 * 8 else 0) + bitmap_total rest end.

(** fewer than 2^32-64 frames of available RAM (the counters are uint32, and the first pass
    rounds the frame count up to a multiple of 64 in uint32 arithmetic) *)
Definition small_map (m : memmap) : Prop := total_frames m + 64 <= two32.

Lemma bitmap_total_le m : Forall WFregion m -> bitmap_total m <= total_frames m * 8.
Proof.
  induction m as [|r rest IH]; intros Hwf; cbn; [lia|].
  inversion Hwf as [|? ? Hr Hrest]; subst. specialize (IH Hrest).
  destruct (region_frames_facts r Hr) as (_ & Hp & _). rewrite Hp.
  destruct (is_avail r); cbn [andb]; [|lia].
  destruct (N.ltb_spec (RS r) (RE1 r)); [|lia]. unfold nfr. lia.
Qed.

Lemma pass1_gen : forall m np tot req,
  Forall WFregion m -> tot + total_frames m + 64 <= two32 -> req + total_frames m * 8 < two32 * 16 ->
  fold_left pass1_step m (np, tot, req) =
  (np + N.of_nat (length (filter pool_region m)), tot + total_frames m, req + bitmap_total m).
Proof.
  induction m as [|r rest IH]; intros np tot req Hwf Htot Hreq; cbn [fold_left filter total_frames bitmap_total length].
  - f_equal; [f_equal|]; lia.
  - inversion Hwf as [|? ? Hr Hrest]; subst.
    destruct (region_frames_facts r Hr) as (Hs & Hp & Hf).
    cbn [total_frames] in Htot, Hreq.
    unfold pass1_step at 2. destruct (pool_region r) eqn:Epr.
    + assert (Hlt: RS r < RE1 r) by (rewrite Hp in Epr; destruct (is_avail r); cbn in Epr; [lia|discriminate]).
      destruct (Hf Hlt) as (He & Hn). rewrite Hn. fold (nfr r) in *.
      pose proof (bitmap_total_le rest Hrest) as Hbt.
      rewrite (w32_small (nfr r)), (w32_small (tot + nfr r)), (w32_small (nfr r + 63)) by (unfold two32 in *; lia).
      rewrite round64_bytes.
      assert (Hb: (nfr r + 63) / 64 * 8 <= nfr r * 8) by lia.
      generalize dependent ((nfr r + 63) / 64 * 8). intros bb Hb. unfold two32 in *.
      rewrite w64_small by (unfold two64; lia).
      rewrite (IH _ _ _ Hrest) by lia.
      cbn [length]. f_equal; [f_equal|]; lia.
    + rewrite (IH _ _ _ Hrest); [|lia|lia]. rewrite !N.add_0_l. reflexivity.
Qed.

(** ---- the pools built by the second pass ---- *)
Lemma bitf_zeros k i : bitf (repeat 0 k) i = false.
Proof.
  unfold bitf. assert (H: nth (N.to_nat (i / 64)) (repeat 0 k) 0 = 0).
  { generalize (N.to_nat (i / 64)). induction k as [|k IH]; intros [|j]; cbn; auto. }
  rewrite H. apply N.bits_0.
Qed.

Lemma cnt_const_false n : cnt (fun _ => false) n = N.of_nat n.
Proof. induction n as [|n IH]; cbn [cnt]; [reflexivity|]. rewrite IH. lia. Qed.

Lemma pool_of_region_inv r :
  WFregion r -> RS r < RE1 r -> nfr r + 64 <= two32 ->
  InvPool (fun _ => false) (pool_of_region r) /\
  p_start (pool_of_region r) = RS r /\ p_end (pool_of_region r) = RE1 r - 1 /\
  p_free (pool_of_region r) = nfr r /\
  bitmap_bytes r = (nfr r + 63) / 64 * 8.
Proof.
  intros Hwf Hlt Hsmall. destruct (region_frames_facts r Hwf) as (Hs & Hp & Hf).
  destruct (Hf Hlt) as (He & Hn). unfold nfr, two32 in *.
  assert (Hbb: bitmap_bytes r = (RE1 r - RS r + 63) / 64 * 8).
  { unfold bitmap_bytes. rewrite Hn. rewrite w64_small by (unfold two64; lia). apply round64_bytes. }
  unfold pool_of_region. rewrite Hbb, Hs, He, Hn. cbn [p_start p_end p_free].
  rewrite w32_small by (unfold two32; lia).
  split; [|repeat split; reflexivity].
  unfold InvPool, pool_n; cbn [p_start p_end p_free p_bitmap].
  assert (Hbig: RE1 r - 1 < big).
  { pose proof (RE1_bounds r). unfold WFregion, two64 in Hwf. unfold big. lia. }
  rewrite repeat_length, N.shiftr_div_pow2. change (2 ^ 3) with 8.
  repeat split; try lia.
  - unfold two32. lia.
  - intros i Hi. apply bitf_zeros.
  - rewrite (cnt_ext _ (fun _ => false)) by (intros; apply bitf_zeros). rewrite cnt_const_false. lia.
Qed.

Definition region_range (r : region) : N * N := (RS r, RE1 r - 1).

Lemma pass2_facts : forall m,
  Forall WFregion m -> ordered m -> total_frames m + 64 <= two32 ->
  Forall (InvPool (fun _ => false)) (pass2 m) /\
  ranges (pass2 m) = map region_range (filter pool_region m) /\
  ranges_sorted (ranges (pass2 m)) /\
  sum_n (ranges (pass2 m)) = total_frames m /\
  sum_free (pass2 m) = total_frames m /\
  fold_left (fun acc r => acc + bitmap_bytes r) (filter pool_region m) 0 = bitmap_total m.
Proof.
  intros m Hwf Hord Hsmall.
  assert (Hgen: forall acc, fold_left (fun acc r => acc + bitmap_bytes r) (filter pool_region m) acc = acc + bitmap_total m /\
     Forall (InvPool (fun _ => false)) (pass2 m) /\
     ranges (pass2 m) = map region_range (filter pool_region m) /\
     ranges_sorted (ranges (pass2 m)) /\
     sum_n (ranges (pass2 m)) = total_frames m /\
     sum_free (pass2 m) = total_frames m).
  2:{ destruct (Hgen 0) as (H1 & H2 & H3 & H4 & H5 & H6). repeat split; assumption. }
  induction m as [|r rest IH]; intros acc.
  - cbn. repeat split; try constructor; lia.
  - inversion Hwf as [|? ? Hr Hrest]; subst. destruct Hord as [Ho1 Ho2].
    cbn [total_frames] in Hsmall.
    assert (Hsmall': total_frames rest + 64 <= two32) by (destruct (pool_region r); lia).
    specialize (IH Hrest Ho2 Hsmall').
    unfold pass2 in *. cbn [filter total_frames bitmap_total].
    destruct (region_frames_facts r Hr) as (Hs & Hp & Hf).
    destruct (pool_region r) eqn:Epr.
    + assert (Hlt: RS r < RE1 r) by (rewrite Hp in Epr; destruct (is_avail r); cbn in Epr; [lia|discriminate]).
      destruct (pool_of_region_inv r Hr Hlt ltac:(unfold nfr in *; lia)) as (Hinv & Hps & Hpe & Hpf & Hbb).
      cbn [fold_left map]. destruct (IH (acc + bitmap_bytes r)) as (I1 & I2 & I3 & I4 & I5 & I6).
      rewrite I1, Hbb. cbn [ranges map sum_n sum_free]. fold (ranges (map pool_of_region (filter pool_region rest))).
      rewrite Hps, Hpe, Hpf, I5, I6. unfold nfr in *.
      split; [lia|]. split; [constructor; assumption|]. split; [rewrite I3; reflexivity|]. split.
      { constructor; [assumption|]. rewrite I3.
        rewrite Forall_forall. intros q Hq. apply in_map_iff in Hq. destruct Hq as (r2 & <- & Hr2).
        apply filter_In in Hr2. destruct Hr2 as [Hr2 Hpr2]. cbn [fst snd region_range].
        rewrite Forall_forall in Ho1. specialize (Ho1 r2 Hr2).
        pose proof (RE1_bounds r). pose proof (RS_bounds r2). lia. }
      split; lia.
    + destruct (IH acc) as (I1 & I2 & I3 & I4 & I5 & I6).
      repeat split; try assumption; try lia.
Qed.

Lemma ranges_nth ps ps' i p :
  ranges ps' = ranges ps -> nth_error ps i = Some p ->
  exists p', nth_error ps' i = Some p' /\ p_start p' = p_start p /\ p_end p' = p_end p.
Proof.
  intros Hr Hn. pose proof (map_nth_error (fun p => (p_start p, p_end p)) i ps Hn) as E.
  fold (ranges ps) in E. rewrite <- Hr in E. unfold ranges in E. rewrite nth_error_map in E.
  destruct (nth_error ps' i) as [p'|]; cbn in E; [|discriminate]. inversion E. exists p'. repeat split; assumption.
Qed.

Lemma ranges_unique rs : ranges_sorted rs ->
  forall s e s' e' x, In (s, e) rs -> In (s', e') rs -> s <= x <= e -> s' <= x <= e' -> (s, e) = (s', e').
Proof.
  induction rs as [|[s0 e0] rs IH]; intros Hs s e s' e' x H1 H2 Hx Hx'; [destruct H1|].
  inversion Hs as [|? ? Hs' Hall]; subst. rewrite Forall_forall in Hall.
  destruct H1 as [E1|H1], H2 as [E2|H2].
  - congruence.
  - inversion E1; subst. specialize (Hall _ H2). cbn in Hall. lia.
  - inversion E2; subst. specialize (Hall _ H1). cbn in Hall. lia.
  - eapply IH; eassumption.
Qed.

(** a run of consecutive frames of one pool, all unreserved so far *)
Lemma mark_loop i s e : forall cnt f0 a R,
  Inv R a -> (exists p, nth_error (a_pools a) i = Some p /\ p_start p = s /\ p_end p = e) ->
  (forall j, j < cnt -> s <= f0 + j <= e /\ R (f0 + j) = false) ->
  exists a',
    N.iter cnt (fun st : N * outcome balloc =>
                  let '(f, o) := st in (f + 1, obind o (fun a' => mark_reserved a' (Some i) f))) (f0, Ok a)
    = (f0 + cnt, Ok a') /\
    Inv (fun g => R g || ((f0 <=? g) && (g <? f0 + cnt))) a' /\
    ranges (a_pools a') = ranges (a_pools a) /\ a_total a' = a_total a /\
    a_reserved a' = a_reserved a + cnt.
Proof.
  induction cnt as [|cnt IH] using N.peano_ind; intros f0 a R Hinv (p & Hnth & Hs & He) Hfr.
  - exists a. cbn [N.iter]. rewrite !N.add_0_r. split; [reflexivity|]. split; [|repeat split; reflexivity].
    apply (Inv_ext R); [|assumption]. intros g. destruct (R g); [reflexivity|]. cbn. lia.
  - rewrite N.iter_succ_r. cbn [obind].
    destruct (Hfr 0 ltac:(lia)) as [Hin0 HR0]. rewrite N.add_0_r in Hin0, HR0.
    assert (Hinp: in_pool p f0) by (unfold in_pool; lia).
    destruct (mark_reserved_at R a i p f0 Hinv Hnth Hinp HR0) as (a1 & E1 & Hinv1 & Hr1 & Ht1 & Hres1).
    rewrite E1.
    destruct (ranges_nth (a_pools a) (a_pools a1) i p Hr1 Hnth) as (p1 & Hnth1 & Hs1 & He1).
    destruct (IH (f0 + 1) a1 (upd R f0 true) Hinv1) as (a' & E' & Hinv' & Hr' & Ht' & Hres').
    { exists p1. repeat split; congruence. }
    { intros j Hj. destruct (Hfr (j + 1) ltac:(lia)) as [Hin HR]. replace (f0 + 1 + j) with (f0 + (j + 1)) by lia.
      split; [lia|]. rewrite upd_other by lia. assumption. }
    exists a'. replace (f0 + N.succ cnt) with (f0 + 1 + cnt) by lia. split; [exact E'|].
    split; [|split; [congruence|split; [congruence|lia]]].
    apply (Inv_ext (fun g => upd R f0 true g || ((f0 + 1 <=? g) && (g <? f0 + 1 + cnt)))); [|assumption].
    intros g. unfold upd. destruct (N.eqb_spec g f0) as [->|Hne].
    + cbn [orb]. destruct (R f0); cbn [orb]; [reflexivity|]. lia.
    + destruct (R g); cbn [orb]; [reflexivity|]. lia.
Qed.

Definition call_frames (cs : list mapcall) : list N := map (fun c => snd (fst c)) cs.

Lemma in_ranges_avail m f :
  WFmap m -> (in_ranges (map region_range (filter pool_region m)) f <-> frame_avail m f).
Proof.
  intros [Hwf _]. rewrite Forall_forall in Hwf. unfold in_ranges, frame_avail. split.
  - intros (s & e & Hin & Hf). apply in_map_iff in Hin. destruct Hin as (r & E & Hr).
    apply filter_In in Hr. destruct Hr as [Hr Hp]. inversion E; subst.
    destruct (region_frames_facts r (Hwf r Hr)) as (_ & Hpe & _). rewrite Hpe in Hp.
    apply andb_prop in Hp. destruct Hp as [Ha Hlt].
    exists r. split; [assumption|]. split; [assumption|]. apply frame_in_region. lia.
  - intros (r & Hr & Ha & Hf). apply frame_in_region in Hf. exists (RS r), (RE1 r - 1). split; [|lia].
    apply in_map_iff. exists r. split; [reflexivity|]. apply filter_In. split; [assumption|].
    destruct (region_frames_facts r (Hwf r Hr)) as (_ & -> & _). rewrite Ha. cbn [andb]. lia.
Qed.

Lemma sorted_nodup (l : list N) : StronglySorted N.lt l -> NoDup l.
Proof.
  induction l as [|x l IH]; intros H; [constructor|]. inversion H as [|? ? Hs Hall]; subst.
  constructor; [|apply IH; assumption]. intros Hin. rewrite Forall_forall in Hall. specialize (Hall x Hin). lia.
Qed.

Lemma pools_le_frames : forall m, Forall WFregion m -> N.of_nat (length (filter pool_region m)) <= total_frames m.
Proof.
  induction m as [|r rest IH]; intros Hwf; cbn [filter total_frames length]; [lia|].
  inversion Hwf as [|? ? Hr Hrest]; subst. specialize (IH Hrest).
  destruct (region_frames_facts r Hr) as (_ & Hp & _).
  destruct (pool_region r) eqn:E; [|lia]. cbn [length].
  assert (RS r < RE1 r) by (rewrite Hp in E; destruct (is_avail r); cbn in E; [lia|discriminate]).
  unfold nfr. lia.
Qed.

Section Init.
  Variable m : memmap.
  Variables kstart kend : N.
  Hypothesis Hm : WFmap m.
  Hypothesis Hkern : WFkernel m kstart kend.
  Hypothesis Hsmall : small_map m.

  Let ks := kernel_start_frame kstart.
  Let ke := kernel_end_frame kend.
  Let rs := map region_range (filter pool_region m).

  Definition kernelb (g : N) : bool := (ks <=? g) && (g <=? ke).

  Lemma kernelb_spec g : kernelb g = true <-> in_kernel kstart kend g.
  Proof.
    destruct (kernel_facts m kstart kend Hm Hkern) as (Hal & Hlt & Hk & _).
    rewrite (in_kernel_frames kstart kend Hal Hlt Hk g). fold ks ke. unfold kernelb. lia.
  Qed.

  (** the kernel frames that are managed at all lie in the pool range that holds [ks] *)
  Lemma kernel_one_range g :
    in_ranges rs g -> kernelb g = true ->
    exists s e, In (s, e) rs /\ s <= ks <= e /\ s <= g <= e.
  Proof.
    intros (s & e & Hin & Hf) Hkb. exists s, e. split; [assumption|]. split; [|assumption].
    destruct (kernel_facts m kstart kend Hm Hkern) as (Hal & Hlt & Hk & Hkr).
    destruct (kernel_frames_bounds kstart kend Hal Hlt Hk) as [Hks Hke]. fold ks ke in Hks, Hke.
    unfold rs in Hin. apply in_map_iff in Hin. destruct Hin as (r & E & Hr). apply filter_In in Hr. destruct Hr as [Hr Hp].
    inversion E; subst. rewrite Forall_forall in Hkr.
    specialize (Hkr r Hr). unfold KR in Hkr. unfold kernelb in Hkb.
    pose proof (RS_bounds r). pose proof (RE1_bounds r). lia.
  Qed.

  (** ---- the page-mapping loop = the first [pages] early allocations ---- *)
  Definition pages_ok (mapfail n : N) (ml : maploop) : Prop :=
    match ml with
    | MGo b calls =>
        boot_run m ks ke (N.to_nat n) boot_reset = (b, map Some (call_frames calls)) /\ N.of_nat (length calls) = n
    | MErrMap _ _ => mapfail <> 0
    | MErrOOM _ _ => True
    end.

  Lemma map_pages_spec pages mapfail : pages_ok mapfail pages (map_pages m ks ke pages mapfail).
  Proof.
    unfold map_pages.
    match goal with |- context[N.iter pages ?F ?X] => set (step := F); set (x0 := X) end.
    refine (proj2 (N.iter_ind _ step x0 (fun n st => fst st = n /\ pages_ok mapfail n (snd st)) _ _ pages)).
    - cbn. split; [reflexivity|]. split; reflexivity.
    - intros n [i ml] [Hi Hml]. cbn [fst snd] in *. subst i. unfold step. cbn [fst snd]. split; [lia|].
      destruct ml as [b calls| |]; try exact Hml. destruct Hml as [Hrun Hlen].
      destruct (boot_alloc m ks ke b) as [b' [f|]] eqn:Ea; [|exact I].
      destruct (N.eqb_spec mapfail (n + 1)); [cbn [pages_ok]; lia|].
      cbn [pages_ok].
      rewrite N2Nat.inj_succ, <- Nat.add_1_r. unfold ks, ke in *. rewrite run_app, Hrun. cbn [boot_run]. rewrite Ea.
      unfold call_frames. rewrite !map_app. cbn [map fst snd]. split; [reflexivity|].
      rewrite app_length. cbn [length]. lia.
  Qed.

  Lemma ks_le_ke : ks <= ke /\ ke < big.
  Proof.
    destruct (kernel_facts m kstart kend Hm Hkern) as (Hal & Hlt & Hk & _).
    destruct (kernel_frames_bounds kstart kend Hal Hlt Hk) as [Hks Hke]. fold ks ke in Hks, Hke.
    unfold two64, big in *. lia.
  Qed.

  (** ---- reserveKernelFrames ---- *)
  Lemma reserve_kernel_spec a :
    Inv (fun _ => false) a -> ranges (a_pools a) = rs ->
    exists a', reserve_kernel a ks ke = Ok a' /\ Inv kernelb a' /\ ranges (a_pools a') = rs /\
               a_total a' = a_total a.
  Proof.
    intros Hinv Hr. destruct ks_le_ke as [Hkk Hkb]. unfold reserve_kernel.
    assert (Hmax: (ke =? max64) = false) by (apply N.eqb_neq; unfold big, max64, two64 in *; lia). rewrite Hmax.
    assert (Hsorted: ranges_sorted rs) by (rewrite <- Hr; apply Hinv).
    pose proof (pool_for_frame_spec a ks) as P.
    destruct (pool_for_frame a ks) as [i|].
    - destruct P as (p & Hnth & Hin). rewrite Hnth.
      assert (Hpin: In p (a_pools a)) by (eapply nth_error_In; eassumption).
      assert (Hprange: In (p_start p, p_end p) rs).
      { rewrite <- Hr. unfold ranges. apply in_map_iff. exists p. split; [reflexivity|assumption]. }
      unfold in_pool in Hin.
      set (stop := N.min ke (p_end p)).
      assert (Hstop: ks <= stop) by (unfold stop; lia).
      assert (Hc: (ks <=? stop) = true) by lia. rewrite Hc.
      destruct (mark_loop i (p_start p) (p_end p) (stop + 1 - ks) ks a (fun _ => false) Hinv) as (a' & E & Hinv' & Hr' & Ht' & _).
      { exists p. repeat split; assumption. }
      { intros j Hj. split; [unfold stop in *; lia|reflexivity]. }
      rewrite E. cbn [snd]. exists a'. split; [reflexivity|]. split; [|split; [congruence|assumption]].
      apply (Inv_ext_managed (fun g => false || ((ks <=? g) && (g <? ks + (stop + 1 - ks))))); [|assumption].
      intros g Hg. cbn [orb]. apply managed_ranges in Hg. rewrite Hr', Hr in Hg.
      unfold kernelb. destruct ((ks <=? g) && (g <=? ke)) eqn:Ek.
      + destruct (kernel_one_range g Hg Ek) as (s & e & Hse & Hks & Hgs).
        pose proof (ranges_unique rs Hsorted _ _ _ _ ks Hse Hprange Hks ltac:(lia)) as Eq. inversion Eq; subst.
        unfold stop in *. lia.
      + unfold stop in *. lia.
    - exists a. split; [reflexivity|]. split; [|split; [assumption|reflexivity]].
      apply (Inv_ext_managed (fun _ => false)); [|assumption].
      intros g Hg. apply managed_ranges in Hg. rewrite Hr in Hg.
      destruct (kernelb g) eqn:Ek; [|reflexivity]. exfalso.
      destruct (kernel_one_range g Hg Ek) as (s & e & Hse & Hks & _).
      apply P. apply managed_ranges. rewrite Hr. exists s, e. split; assumption.
  Qed.

  (** ---- reserveEarlyAllocatorFrames ---- *)
  Lemma early_loop : forall E b0 a R,
    snd (boot_run m ks ke (length E) b0) = map Some E ->
    Inv R a -> ranges (a_pools a) = rs ->
    (forall f, In f E -> in_ranges rs f /\ R f = false) -> NoDup E ->
    exists b' a',
      N.iter (N.of_nat (length E)) (fun st : bstate * outcome balloc =>
         let '(b, o) := st in
         let '(b', r) := boot_alloc m ks ke b in
         let f := match r with Some f => f | None => mm_InvalidFrame end in
         (b', obind o (fun a' => mark_reserved a' (pool_for_frame a' f) f))) (b0, Ok a) = (b', Ok a') /\
      Inv (fun g => R g || memb g E) a' /\ ranges (a_pools a') = rs /\ a_total a' = a_total a /\
      a_reserved a' = a_reserved a + N.of_nat (length E).
  Proof.
    induction E as [|f E IH]; intros b0 a R Hrun Hinv Hr Hfr Hnd.
    - exists b0, a. cbn. split; [reflexivity|]. split; [|repeat split; try assumption; lia].
      apply (Inv_ext R); [|assumption]. intros g. rewrite orb_false_r. reflexivity.
    - cbn [length]. rewrite Nat2N.inj_succ, N.iter_succ_r.
      cbn [length boot_run] in Hrun.
      destruct (boot_alloc m ks ke b0) as [b1 r] eqn:Ea.
      destruct (boot_run m ks ke (length E) b1) as [b2 rs2] eqn:Er. cbn [snd map] in Hrun.
      inversion Hrun as [[Hr0 Hrs2]]. subst r.
      destruct (Hfr f (or_introl eq_refl)) as [Hfm HfR].
      assert (Hman: managed (a_pools a) f) by (apply managed_ranges; rewrite Hr; assumption).
      destruct (mark_reserved_spec R a f Hinv Hman HfR) as (a1 & E1 & Hinv1 & Hr1 & Ht1 & Hres1).
      cbn [obind]. rewrite E1.
      inversion Hnd as [|? ? Hnotin Hnd']; subst.
      destruct (IH b1 a1 (upd R f true)) as (b' & a' & E' & Hinv' & Hr' & Ht' & Hres').
      { rewrite Er. reflexivity. }
      { assumption. }
      { congruence. }
      { intros g Hg. destruct (Hfr g (or_intror Hg)) as [Hgm HgR]. split; [assumption|].
        rewrite upd_other; [assumption|]. intros ->. contradiction. }
      { assumption. }
      exists b', a'. split; [exact E'|]. split; [|split; [assumption|split; [congruence|lia]]].
      apply (Inv_ext (fun g => upd R f true g || memb g E)); [|assumption].
      intros g. unfold upd, memb. cbn [existsb]. destruct (N.eqb_spec g f); [rewrite orb_true_r; reflexivity|reflexivity].
  Qed.

  (** ---- pmm.Init ---- *)
  Theorem pmm_init_spec limit mapfail :
    match pmm_init m kstart kend limit mapfail with
    | (InitOk a b, obs) =>
        let E := call_frames (o_calls obs) in
        Inv (fun g => kernelb g || memb g E) a /\ ranges (a_pools a) = rs /\
        a_total a = total_frames m /\
        Forall (good_frame m kstart kend) E /\ StronglySorted N.lt E
    | (InitErrReserve, _) | (InitErrMap, _) | (InitErrOOM, _) => True
    | _ => False
    end.
  Proof.
    destruct Hm as [Hwf Hord]. unfold small_map in Hsmall.
    pose proof (bitmap_total_le m Hwf) as Hbt. pose proof (pools_le_frames m Hwf) as Hpl.
    unfold pmm_init. fold ks ke. unfold pass1.
    rewrite (pass1_gen m 0 0 0 Hwf) by (unfold two32 in *; lia). rewrite !N.add_0_l.
    set (npools := N.of_nat (length (filter pool_region m))) in *.
    set (bytes := required_bytes npools (bitmap_total m)).
    destruct (limit <? bytes); [exact I|].
    pose proof (map_pages_spec (N.shiftr bytes PageShift) mapfail) as MP.
    destruct (map_pages m ks ke (N.shiftr bytes PageShift) mapfail) as [b calls| |]; try exact I.
    destruct MP as [Hrun Hlen].
    destruct (pass2_facts m Hwf Hord Hsmall) as (P1 & P2 & P3 & P4 & P5 & P6).
    assert (Hl: (N.of_nat (length (pass2 m)) =? npools) = true).
    { apply N.eqb_eq. unfold pass2, npools. rewrite map_length. reflexivity. }
    rewrite Hl. cbn [negb].
    assert (Hlay: (bytes <? layout_bytes m npools) = false).
    { unfold layout_bytes. rewrite P6. unfold bytes, required_bytes. rewrite sizeofFramePool_val.
      unfold two32 in *. change pmask with (2 ^ 12 - 1). rewrite andnot_pow2. change (2 ^ 12) with 4096.
      rewrite (w64_small (npools * 72)) by (unfold two64; lia). change (4096 - 1) with 4095.
      rewrite w64_small by (unfold two64; lia). lia. }
    rewrite Hlay.
    set (a0 := mkBA (total_frames m) 0 (pass2 m)).
    assert (Hinv0: Inv (fun _ => false) a0).
    { unfold Inv, a0; cbn [a_pools a_total a_reserved]. repeat split; try assumption; try (unfold two32 in *; lia). }
    destruct (reserve_kernel_spec a0 Hinv0 P2) as (a1 & E1 & Hinv1 & Hr1 & Ht1).
    rewrite E1.
    (* the early frames *)
    set (E := call_frames calls) in *.
    pose proof (boot_alloc_sound m kstart kend (conj Hwf Hord) Hkern (N.to_nat (N.shiftr bytes PageShift))) as Hsound.
    cbn zeta in Hsound. fold ks ke in Hsound. rewrite Hrun in Hsound. cbn [snd] in Hsound. rewrite successes_some in Hsound.
    destruct Hsound as [Hgood Hsorted].
    pose proof (run_shape m kstart kend (conj Hwf Hord) Hkern (N.to_nat (N.shiftr bytes PageShift)) boot_reset (reset_inv m kstart kend)) as Hshape.
    fold ks ke in Hshape. rewrite Hrun in Hshape. destruct Hshape as (_ & _ & Hcount).
    rewrite successes_some in Hcount. cbn [boot_reset b_count] in Hcount. rewrite N.add_0_l in Hcount.
    assert (HlenE: length E = N.to_nat (N.shiftr bytes PageShift)).
    { unfold E, call_frames. rewrite map_length, <- Hlen, Nat2N.id. reflexivity. }
    unfold reserve_early. rewrite Hcount.
    destruct (early_loop E boot_reset a1 kernelb) as (b' & a2 & E2 & Hinv2 & Hr2 & Ht2 & _).
    { rewrite HlenE, Hrun. reflexivity. }
    { assumption. }
    { assumption. }
    { intros f Hf. rewrite Forall_forall in Hgood. destruct (Hgood f Hf) as [Hav Hnk]. split.
      - apply (in_ranges_avail m f (conj Hwf Hord)). assumption.
      - destruct (kernelb f) eqn:Ek; [|reflexivity]. exfalso. apply Hnk. apply kernelb_spec. assumption. }
    { apply sorted_nodup. assumption. }
    cbv zeta in E2. cbv zeta. rewrite E2. cbn [o_calls]. fold E.
    split; [assumption|]. split; [assumption|]. split; [rewrite Ht2, Ht1; reflexivity|]. split; assumption.
  Qed.
End Init.
