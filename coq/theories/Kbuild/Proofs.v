(** Proofs about the model of FindRedirects (Kbuild/Model.v). *)
From Coq Require Import NArith List Bool Lia Sorted Arith.
From FF Require Import Gen.Consts_kbuild Kbuild.Model.
Import ListNotations.
Local Open Scope N_scope.

(** ---- text functions ---- *)
Lemma has_prefix_spec p s : has_prefix p s = true <-> exists r, s = p ++ r.
Proof.
  revert s. induction p as [|a p IH]; intros s; cbn [has_prefix].
  - split; [intros _; exists s; reflexivity | reflexivity].
  - destruct s as [|b s].
    + split; [discriminate | intros [r Hr]; discriminate].
    + rewrite andb_true_iff, N.eqb_eq, IH. split.
      * intros [-> [r ->]]. exists r. reflexivity.
      * intros [r Hr]. cbn in Hr. injection Hr as -> ->. split; [reflexivity | exists r; reflexivity].
Qed.

Lemma has_suffix_spec p s : has_suffix p s = true <-> exists r, s = r ++ p.
Proof.
  unfold has_suffix. rewrite has_prefix_spec. split.
  - intros [r Hr]. exists (rev r). apply (f_equal (@rev N)) in Hr.
    rewrite rev_involutive, rev_app_distr, rev_involutive in Hr. exact Hr.
  - intros [r ->]. exists (rev r). apply rev_app_distr.
Qed.

Lemma trim_prefix_app p r : trim_prefix p (p ++ r) = r.
Proof.
  unfold trim_prefix. replace (has_prefix p (p ++ r)) with true.
  - induction p as [|a p IH]; [reflexivity | exact IH].
  - symmetry. apply has_prefix_spec. exists r. reflexivity.
Qed.

Definition all_space (s : text) : Prop := Forall (fun c => is_space c = true) s.

Lemma trim_left_spec s :
  exists a, s = a ++ trim_left s /\ all_space a /\
            match trim_left s with [] => True | c :: _ => is_space c = false end.
Proof.
  induction s as [|c s IH]; cbn [trim_left].
  - exists []. repeat split; constructor.
  - destruct (is_space c) eqn:Hc.
    + destruct IH as [a [H1 [H2 H3]]]. exists (c :: a). repeat split.
      * cbn. f_equal. exact H1.
      * constructor; assumption.
      * exact H3.
    + exists []. repeat split; [constructor | exact Hc].
Qed.

Lemma trim_left_nonspace c s : is_space c = false -> trim_left (c :: s) = c :: s.
Proof. intros H. cbn [trim_left]. rewrite H. reflexivity. Qed.

(** strings.TrimSpace on ASCII: [s = a ++ trim_space s ++ b] with [a], [b] white space and the
    result neither starting nor ending with white space. *)
Lemma trim_space_spec s :
  exists a b, s = a ++ trim_space s ++ b /\ all_space a /\ all_space b /\
    (match trim_space s with [] => True | c :: _ => is_space c = false end) /\
    (match rev (trim_space s) with [] => True | c :: _ => is_space c = false end).
Proof.
  unfold trim_space.
  destruct (trim_left_spec s) as [a [Ha [Hsa Hfa]]].
  destruct (trim_left_spec (rev (trim_left s))) as [b [Hb [Hsb Hfb]]].
  set (m := trim_left (rev (trim_left s))) in *.
  exists a, (rev b). split; [|split; [|split; [|split]]].
  - rewrite Ha at 1. f_equal.
    apply (f_equal (@rev N)) in Hb. rewrite rev_involutive, rev_app_distr in Hb. exact Hb.
  - exact Hsa.
  - unfold all_space. apply Forall_rev. exact Hsb.
  - (* first character of rev m *)
    assert (Hm : trim_left s = rev m ++ rev b).
    { apply (f_equal (@rev N)) in Hb. rewrite rev_involutive, rev_app_distr in Hb. exact Hb. }
    destruct (rev m) as [|c r] eqn:Hr; [exact I|].
    rewrite Hm in Hfa. exact Hfa.
  - rewrite rev_involutive. exact Hfb.
Qed.

Lemma trim_space_nonspace_ends c s d :
  is_space c = false -> is_space d = false -> trim_space (c :: s ++ [d]) = c :: s ++ [d].
Proof.
  intros Hc Hd. unfold trim_space. rewrite (trim_left_nonspace c _ Hc).
  change (c :: s ++ [d]) with ((c :: s) ++ [d]). rewrite rev_app_distr. cbn [rev app].
  rewrite (trim_left_nonspace d _ Hd). cbn [rev]. rewrite rev_app_distr, rev_involutive. reflexivity.
Qed.

(** ---- sites: positions (file index, declaration index, doc-line index) of annotations ---- *)
Definition site : Type := (nat * nat * nat)%type.

Definition lex_lt (a b : site) : Prop :=
  let '(i, j, k) := a in let '(i', j', k') := b in
  (i < i' \/ (i = i' /\ (j < j' \/ (j = j' /\ k < k'))))%nat.

Definition is_annotation (line : text) : Prop := has_prefix kbuild_redirectComment line = true.

Definition entry_of (f : file) (d : decl) (line : text) : redirect :=
  (trim_space (skipn (length kbuild_redirectComment) line), pkg_path (f_dir f) ++ dot :: d_name d).

(** [(i,j,k)] is an annotation site of [t] and [e] is the table entry it calls for. *)
Definition is_site (t : tree) (s : site) (e : redirect) : Prop :=
  let '(i, j, k) := s in
  exists f d line,
    nth_error t i = Some f /\ is_source (f_name f) = true /\
    nth_error (f_decls f) j = Some d /\ d_kind d = KFunc /\
    nth_error (d_doc d) k = Some line /\ is_annotation line /\
    e = entry_of f d line.

Fixpoint enum_from {A : Type} (n : nat) (l : list A) : list (nat * A) :=
  match l with
  | [] => []
  | x :: r => (n, x) :: enum_from (S n) r
  end.

Lemma in_enum_from {A : Type} (l : list A) n i x :
  In (i, x) (enum_from n l) <-> (n <= i)%nat /\ nth_error l (i - n) = Some x.
Proof.
  revert n. induction l as [|y l IH]; intros n; cbn [enum_from In].
  - split; [tauto|]. intros [_ H]. destruct (i - n)%nat; discriminate.
  - rewrite IH. split.
    + intros [H | [H1 H2]].
      * injection H as -> ->. split; [lia|]. rewrite Nat.sub_diag. reflexivity.
      * split; [lia|]. replace (i - n)%nat with (S (i - S n)) by lia. exact H2.
    + intros [H1 H2]. destruct (Nat.eq_dec n i) as [->|Hne].
      * left. rewrite Nat.sub_diag in H2. cbn in H2. injection H2 as ->. reflexivity.
      * right. split; [lia|]. replace (i - n)%nat with (S (i - S n)) in H2 by lia. exact H2.
Qed.

Lemma map_snd_flat_map_enum {A B C : Type} (g : nat -> A -> list (C * B)) (h : A -> list B) l n :
  (forall i x, map snd (g i x) = h x) ->
  map snd (flat_map (fun p => g (fst p) (snd p)) (enum_from n l)) = flat_map h l.
Proof.
  intros H. revert n. induction l as [|x l IH]; intros n; [reflexivity|].
  cbn [enum_from flat_map fst snd]. rewrite map_app, H, IH. reflexivity.
Qed.

Lemma sorted_app {A : Type} (R : A -> A -> Prop) l1 l2 :
  StronglySorted R l1 -> StronglySorted R l2 -> (forall a b, In a l1 -> In b l2 -> R a b) ->
  StronglySorted R (l1 ++ l2).
Proof.
  intros H1 H2 H. induction H1 as [|a l1 Hs IH Hf]; [exact H2|].
  cbn [app]. constructor.
  - apply IH. intros x y Hx Hy. apply H; [right; exact Hx | exact Hy].
  - apply Forall_app. split; [exact Hf|]. apply Forall_forall. intros y Hy. apply H; [left; reflexivity | exact Hy].
Qed.

Lemma sorted_flat_map_enum {A B : Type} (R : B -> B -> Prop) (g : nat -> A -> list B) l n :
  (forall i x, StronglySorted R (g i x)) ->
  (forall i i' x x' b b', (i < i')%nat -> In b (g i x) -> In b' (g i' x') -> R b b') ->
  StronglySorted R (flat_map (fun p => g (fst p) (snd p)) (enum_from n l)).
Proof.
  intros Hs Hlt. revert n. induction l as [|x l IH]; intros n; [constructor|].
  cbn [enum_from flat_map fst snd]. apply sorted_app; [apply Hs | apply IH|].
  intros b b' Hb Hb'. apply in_flat_map in Hb'. destruct Hb' as [[i' x'] [Hin Hb']].
  apply in_enum_from in Hin. destruct Hin as [Hle _]. cbn [fst snd] in Hb'.
  apply (Hlt n i' x x' b b'); [lia | exact Hb | exact Hb'].
Qed.

(** the table together with the site of every entry *)
Definition line_sites (f : file) (d : decl) (i j k : nat) (line : text) : list (site * redirect) :=
  if has_prefix kbuild_redirectComment line then [((i, j, k), entry_of f d line)] else [].

Definition decl_sites (f : file) (i j : nat) (d : decl) : list (site * redirect) :=
  match d_kind d with
  | KFunc => flat_map (fun p => line_sites f d i j (fst p) (snd p)) (enum_from 0 (d_doc d))
  | _ => []
  end.

Definition file_sites (i : nat) (f : file) : list (site * redirect) :=
  if is_source (f_name f)
  then flat_map (fun p => decl_sites f i (fst p) (snd p)) (enum_from 0 (f_decls f))
  else [].

Definition sites (t : tree) : list (site * redirect) :=
  flat_map (fun p => file_sites (fst p) (snd p)) (enum_from 0 t).

Lemma sites_table t : map snd (sites t) = find_redirects t.
Proof.
  unfold sites, find_redirects. apply map_snd_flat_map_enum. intros i f.
  unfold file_sites, redirects_of_file. destruct (is_source (f_name f)); [|reflexivity].
  apply map_snd_flat_map_enum. intros j d.
  unfold decl_sites, redirects_of_decl. destruct (d_kind d); try reflexivity.
  apply map_snd_flat_map_enum. intros k line.
  unfold line_sites, redirects_of_line, entry_of, trim_prefix.
  destruct (has_prefix kbuild_redirectComment line); reflexivity.
Qed.

Lemma in_line_sites f d i j k line s e :
  In (s, e) (line_sites f d i j k line) <-> s = (i, j, k) /\ is_annotation line /\ e = entry_of f d line.
Proof.
  unfold line_sites, is_annotation. destruct (has_prefix kbuild_redirectComment line).
  - cbn [In]. split.
    + intros [H|[]]. injection H as <- <-. auto.
    + intros [-> [_ ->]]. left. reflexivity.
  - cbn [In]. split; [tauto | intros [_ [H _]]; discriminate].
Qed.

Lemma in_flat_map_enum {A B : Type} (g : nat -> A -> list B) l b :
  In b (flat_map (fun p => g (fst p) (snd p)) (enum_from 0 l)) <-> exists i x, nth_error l i = Some x /\ In b (g i x).
Proof.
  rewrite in_flat_map. split.
  - intros [[i x] [Hin H]]. apply in_enum_from in Hin. destruct Hin as [_ Hx]. rewrite Nat.sub_0_r in Hx.
    exists i, x. split; [exact Hx|exact H].
  - intros [i [x [Hx H]]]. exists (i, x). split; [|exact H].
    apply in_enum_from. split; [lia|rewrite Nat.sub_0_r; exact Hx].
Qed.

Lemma in_decl_sites f i j d s e :
  In (s, e) (decl_sites f i j d) <->
  d_kind d = KFunc /\
  exists k line, nth_error (d_doc d) k = Some line /\ s = (i, j, k) /\ is_annotation line /\ e = entry_of f d line.
Proof.
  unfold decl_sites. destruct (d_kind d).
  2-5: split; [intros []|intros [H _]; discriminate H].
  rewrite in_flat_map_enum. cbn [fst snd]. split.
  - intros [k [line [Hl H]]]. apply in_line_sites in H. split; [reflexivity|]. exists k, line. tauto.
  - intros [_ [k [line [Hl H]]]]. exists k, line. split; [exact Hl|]. apply in_line_sites. exact H.
Qed.

Lemma in_file_sites i f b :
  In b (file_sites i f) <->
  is_source (f_name f) = true /\ exists j d, nth_error (f_decls f) j = Some d /\ In b (decl_sites f i j d).
Proof.
  unfold file_sites. destruct (is_source (f_name f)).
  - rewrite in_flat_map_enum. split; [intros H; split; [reflexivity|exact H]|intros [_ H]; exact H].
  - split; [intros []|intros [H _]; discriminate H].
Qed.

Lemma in_sites t s e : In (s, e) (sites t) <-> is_site t s e.
Proof.
  unfold sites, is_site. destruct s as [[i j] k]. rewrite in_flat_map_enum. split.
  - intros [i0 [f [Hf H]]]. apply in_file_sites in H. destruct H as [Hsrc [j0 [d [Hd H]]]].
    apply in_decl_sites in H. destruct H as [Hk [k0 [line [Hl [Heq [Ha He]]]]]]. injection Heq as -> -> ->.
    exists f, d, line. auto 10.
  - intros [f [d [line [Hf [Hsrc [Hd [Hk [Hl [Ha He]]]]]]]]].
    exists i, f. split; [exact Hf|]. apply in_file_sites. split; [exact Hsrc|].
    exists j, d. split; [exact Hd|]. apply in_decl_sites. split; [exact Hk|]. exists k, line. auto.
Qed.

Lemma sorted_map_fst {A B : Type} (R : A -> A -> Prop) (l : list (A * B)) :
  StronglySorted (fun a b => R (fst a) (fst b)) l -> StronglySorted R (map fst l).
Proof.
  induction 1 as [|a l Hs IH Hf]; [constructor|]. cbn [map]. constructor; [exact IH|].
  apply Forall_map. exact Hf.
Qed.

Lemma sites_sorted t : StronglySorted lex_lt (map fst (sites t)).
Proof.
  apply sorted_map_fst. unfold sites. apply sorted_flat_map_enum.
  - intros i f. unfold file_sites. destruct (is_source (f_name f)); [|constructor].
    apply sorted_flat_map_enum.
    + intros j d. unfold decl_sites. destruct (d_kind d); try constructor.
      apply sorted_flat_map_enum.
      * intros k line. unfold line_sites. destruct (has_prefix _ _); repeat constructor.
      * intros k k' line line' [s e] [s' e'] Hlt Hb Hb'.
        apply in_line_sites in Hb, Hb'. destruct Hb as [-> _], Hb' as [-> _]. cbn. lia.
    + intros j j' d d' [s e] [s' e'] Hlt Hb Hb'. apply in_decl_sites in Hb, Hb'.
      destruct Hb as (_ & k & _ & _ & -> & _), Hb' as (_ & k' & _ & _ & -> & _). cbn. lia.
  - intros i i' f f' [s e] [s' e'] Hlt Hb Hb'. apply in_file_sites in Hb, Hb'.
    destruct Hb as (_ & j & d & _ & Hb), Hb' as (_ & j' & d' & _ & Hb'). apply in_decl_sites in Hb, Hb'.
    destruct Hb as (_ & k & _ & _ & -> & _), Hb' as (_ & k' & _ & _ & -> & _). cbn. lia.
Qed.

Lemma lex_lt_irrefl s : ~ lex_lt s s.
Proof. destruct s as [[i j] k]. cbn. lia. Qed.

Lemma sorted_nodup {A : Type} (R : A -> A -> Prop) l :
  (forall a, ~ R a a) -> StronglySorted R l -> NoDup l.
Proof.
  intros Hirr. induction 1 as [|a l Hs IH Hf]; constructor; [|exact IH].
  intros Hin. rewrite Forall_forall in Hf. exact (Hirr a (Hf a Hin)).
Qed.

(** The table is the list of entries called for by the annotation sites, each site exactly once,
    in (file, declaration, line) order. *)
Lemma table_ordered (t : tree) :
  exists ss : list (site * redirect),
    map snd ss = find_redirects t /\
    StronglySorted lex_lt (map fst ss) /\
    (forall s e, In (s, e) ss <-> is_site t s e).
Proof.
  exists (sites t). split; [apply sites_table | split; [apply sites_sorted | apply in_sites]].
Qed.

Lemma table_exactly_once (t : tree) :
  exists ss : list (site * redirect),
    map snd ss = find_redirects t /\
    NoDup (map fst ss) /\
    (forall s e, In (s, e) ss <-> is_site t s e).
Proof.
  destruct (table_ordered t) as [ss [H1 [H2 H3]]]. exists ss. split; [exact H1 | split; [|exact H3]].
  apply (sorted_nodup lex_lt); [apply lex_lt_irrefl | exact H2].
Qed.

(** an entry is in the table iff an annotation calls for it *)
Lemma table_sound_complete (t : tree) (e : redirect) :
  In e (find_redirects t) <->
  exists f d line,
    In f t /\ is_source (f_name f) = true /\ In d (f_decls f) /\ d_kind d = KFunc /\
    In line (d_doc d) /\ has_prefix kbuild_redirectComment line = true /\
    fst e = trim_space (skipn (length kbuild_redirectComment) line) /\
    snd e = pkg_path (f_dir f) ++ dot :: d_name d.
Proof.
  rewrite <- sites_table, in_map_iff. split.
  - intros [[s e'] [He Hin]]. cbn in He. subst e'. apply in_sites in Hin.
    destruct s as [[i j] k]. destruct Hin as [f [d [line [Hf [Hsrc [Hd [Hk [Hl [Ha He]]]]]]]]].
    exists f, d, line. apply nth_error_In in Hf, Hd, Hl. subst e. cbn [fst snd entry_of]. auto 10.
  - intros [f [d [line [Hf [Hsrc [Hd [Hk [Hl [Ha [H1 H2]]]]]]]]]].
    apply In_nth_error in Hf, Hd, Hl. destruct Hf as [i Hf], Hd as [j Hd], Hl as [k Hl].
    exists ((i, j, k), e). split; [reflexivity|]. apply in_sites.
    exists f, d, line. repeat (split; [assumption|]). destruct e as [a b]. cbn in H1, H2. subst. reflexivity.
Qed.

(** ---- counting ---- *)
Definition count_line (line : text) : nat := if has_prefix kbuild_redirectComment line then 1%nat else 0%nat.
Definition count_decl (d : decl) : nat :=
  match d_kind d with KFunc => list_sum (map count_line (d_doc d)) | _ => 0%nat end.
Definition count_file (f : file) : nat :=
  if is_source (f_name f) then list_sum (map count_decl (f_decls f)) else 0%nat.
Definition count_tree (t : tree) : nat := list_sum (map count_file t).

Lemma length_flat_map {A B : Type} (f : A -> list B) l :
  length (flat_map f l) = list_sum (map (fun x => length (f x)) l).
Proof. induction l as [|x l IH]; [reflexivity|]. cbn [flat_map map list_sum]. rewrite app_length, IH. reflexivity. Qed.

Lemma table_length t : length (find_redirects t) = count_tree t.
Proof.
  unfold find_redirects, count_tree. rewrite length_flat_map. f_equal. apply map_ext. intros f.
  unfold redirects_of_file, count_file. destruct (is_source (f_name f)); [|reflexivity].
  rewrite length_flat_map. f_equal. apply map_ext. intros d.
  unfold redirects_of_decl, count_decl. destruct (d_kind d); try reflexivity.
  rewrite length_flat_map. f_equal. apply map_ext. intros l.
  unfold redirects_of_line, count_line. destruct (has_prefix _ _); reflexivity.
Qed.

Lemma decl_entries pkg d :
  d_kind d = KFunc ->
  redirects_of_decl pkg d =
    map (fun line => (trim_space (skipn (length kbuild_redirectComment) line), pkg ++ dot :: d_name d))
        (filter (has_prefix kbuild_redirectComment) (d_doc d)).
Proof.
  intros Hk. unfold redirects_of_decl. rewrite Hk. induction (d_doc d) as [|l ls IH]; [reflexivity|].
  cbn [flat_map filter]. unfold redirects_of_line at 1, trim_prefix.
  destruct (has_prefix kbuild_redirectComment l); cbn [app map]; rewrite IH; reflexivity.
Qed.

(** ---- nothing else: what the table does not depend on ---- *)
Definition relevant_decl (d : decl) : bool := match d_kind d with KFunc => true | _ => false end.

Definition strip_decl (d : decl) : decl :=
  mkDecl (d_kind d) (d_name d) (filter (has_prefix kbuild_redirectComment) (d_doc d)) [] 0.

Definition strip_file (f : file) : file :=
  mkFile (f_dir f) (f_name f) (map strip_decl (filter relevant_decl (f_decls f))).

Definition strip_tree (t : tree) : tree := map strip_file (filter (fun f => is_source (f_name f)) t).

Lemma flat_map_filter {A B : Type} (p : A -> bool) (f : A -> list B) l :
  (forall x, p x = false -> f x = []) -> flat_map f (filter p l) = flat_map f l.
Proof.
  intros H. induction l as [|x l IH]; [reflexivity|]. cbn [filter flat_map].
  destruct (p x) eqn:Hp; cbn [flat_map]; rewrite IH; [reflexivity | rewrite (H x Hp); reflexivity].
Qed.

Lemma flat_map_map {A B C : Type} (g : A -> B) (f : B -> list C) l :
  flat_map f (map g l) = flat_map (fun x => f (g x)) l.
Proof. induction l as [|x l IH]; [reflexivity|]. cbn. rewrite IH. reflexivity. Qed.

Lemma strip_decl_same pkg d : redirects_of_decl pkg (strip_decl d) = redirects_of_decl pkg d.
Proof.
  unfold redirects_of_decl, strip_decl. cbn [d_kind d_name d_doc]. destruct (d_kind d); try reflexivity.
  apply flat_map_filter. intros l Hl. unfold redirects_of_line. rewrite Hl. reflexivity.
Qed.

Lemma table_ignores_the_rest t : find_redirects (strip_tree t) = find_redirects t.
Proof.
  unfold find_redirects, strip_tree. rewrite flat_map_map.
  rewrite <- (flat_map_filter (fun f => is_source (f_name f)) redirects_of_file t).
  2:{ intros f Hf. unfold redirects_of_file. rewrite Hf. reflexivity. }
  apply flat_map_ext. intros f. unfold redirects_of_file, strip_file. cbn [f_name f_dir f_decls].
  destruct (is_source (f_name f)); [|reflexivity].
  rewrite flat_map_map.
  rewrite <- (flat_map_filter relevant_decl (redirects_of_decl (pkg_path (f_dir f))) (f_decls f)).
  2:{ intros d Hd. unfold redirects_of_decl, relevant_decl in *. destruct (d_kind d); try reflexivity. discriminate. }
  apply flat_map_ext. intros d. apply strip_decl_same.
Qed.

(** test files, files without the .go extension *)
Lemma test_file_ignored f r : redirects_of_file (mkFile (f_dir f) (r ++ suffix_test) (f_decls f)) = [].
Proof.
  unfold redirects_of_file, is_source. cbn [f_name].
  replace (has_suffix suffix_test (r ++ suffix_test)) with true; [rewrite andb_false_r; reflexivity|].
  symmetry. apply has_suffix_spec. exists r. reflexivity.
Qed.

Lemma is_source_spec name :
  is_source name = true <-> (exists r, name = r ++ ext_go) /\ ~ (exists r, name = r ++ suffix_test).
Proof.
  unfold is_source. rewrite andb_true_iff, negb_true_iff, has_suffix_spec. split.
  - intros [H1 H2]. split; [exact H1|]. intros H3. apply has_suffix_spec in H3. congruence.
  - intros [H1 H2]. split; [exact H1|]. destruct (has_suffix suffix_test name) eqn:H; [|reflexivity].
    exfalso. apply H2. apply has_suffix_spec. exact H.
Qed.
