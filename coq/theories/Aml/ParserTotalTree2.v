(** Tree-level lemmas for the passes that move objects around (connectNamedObjArgs):
    the payload frame of [detach]; an object is never a descendant of one of its children (and siblings
    are not descendants of each other); rearrangements confined to a set of objects that is closed under
    taking children ([reloc]). *)
From Coq Require Import NArith Arith List Bool Lia.
From Coq Require Import ZifyBool ZifyN ZifyNat.
From FF Require Import Lib.Word Gen.Consts_aml_tree Aml.Stream Aml.Tree Aml.TreeSpec Aml.TreeProofs Aml.TreeProofsOps
  Aml.ParserTotalTree.
Import ListNotations.
Local Open Scope N_scope.

(** ---- detach keeps the payload ---- *)
Ltac pf_step2 :=
  match goal with
  | H : Ok _ = Ok _ |- _ => inversion H; subst; clear H
  | H : bind (wr ?t ?p ?f) _ = Ok _ |- _ =>
      let t1 := fresh "t" in let H1 := fresh "W" in let H2 := fresh "K" in
      apply bind_ok in H; destruct H as (t1 & H1 & H2);
      apply pframe_wr in H1; [|auto with ps]
  | H : bind _ _ = Ok _ |- _ =>
      let a := fresh "a" in let H1 := fresh "B" in let H2 := fresh "K" in
      apply bind_ok in H; destruct H as (a & H1 & H2)
  | H : (if ?c then _ else _) = Ok _ |- _ => destruct c
  | H : wr ?t ?p ?f = Ok _ |- _ => apply pframe_wr in H; [|auto with ps]
  end.

Lemma detach_pframe {V} (t t' : ObjectTree V) o a : detach t o a = Ok t' -> pframe t t'.
Proof. unfold detach. intros H. repeat pf_step2; pf_close. Qed.

Lemma detach_full {V} (t : ObjectTree V) g o a :
  R t g -> In a (kids g o) ->
  exists t', detach t o a = Ok t' /\ R t' (astep g (OpDetach o a)) /\ pframe t t'.
Proof.
  intros HR Hin. destruct (detach_R t g o a HR Hin) as (t' & E & HR').
  exists t'. split; auto. split; auto. eapply detach_pframe; eauto.
Qed.

Lemma append_full2 {V} (t : ObjectTree V) g o a :
  R t g -> glive g o -> glive g a -> groot g a -> ~ desc g a o ->
  exists t', append t o a = Ok t' /\ R t' (astep g (OpAppend o a)) /\ pframe t t'.
Proof.
  intros HR H1 H2 H3 H4. destruct (append_R t g o a HR) as (t' & E & HR'); [cbn [legal]; auto|].
  exists t'. split; auto. split; auto. eapply append_pframe; eauto.
Qed.

(** ---- depth and descendants ---- *)
Lemma desc_mono g1 g a x : (forall p c, In c (kids g1 p) -> In c (kids g p)) -> desc g1 a x -> desc g a x.
Proof. intros H Hd. induction Hd as [|p c Hd IH Hin]; [constructor|]. eapply desc_step; eauto. Qed.

Section Depth.
Context {V : Type} (t : ObjectTree V) (g : ghost) (HR : R t g).

Lemma child_depth p c k : In c (kids g p) -> Depth t p k -> Depth t c (S k).
Proof.
  intros Hin Hd. destruct (R_In_kids t g HR _ _ Hin) as ((po & Hp & Hlp) & co & Hc & Hlc & Hpar).
  eapply Depth_step; eauto; rewrite Hpar; [eapply (R_pos_not_Inv t g HR); eauto|exact Hd].
Qed.

Lemma desc_depth a x : desc g a x -> forall ka, Depth t a ka -> exists kx, Depth t x kx /\ (ka <= kx)%nat /\ (ka = kx -> x = a).
Proof.
  intros Hd. induction Hd as [|p c Hd IH Hin]; intros ka Ha.
  - exists ka. split; auto.
  - destruct (IH ka Ha) as (kp & Hp & Hle & _). exists (S kp). split; [eapply child_depth; eauto|]. split; lia.
Qed.

Lemma live_depth x : glive g x -> exists k, Depth t x k.
Proof. intros Hl. apply (R_live_glive t g HR) in Hl. destruct Hl as (o & Hg & Ho). eapply R_acyc; eauto. Qed.

(** an object is not a descendant of its child *)
Lemma child_not_desc p c : In c (kids g p) -> ~ desc g c p.
Proof.
  intros Hin Hd. destruct (R_In_kids t g HR _ _ Hin) as ((po & Hp & Hlp) & _).
  destruct (R_acyc _ _ HR _ _ Hp Hlp) as (k & Hk).
  pose proof (child_depth _ _ _ Hin Hk) as Hc.
  destruct (desc_depth _ _ Hd _ Hc) as (k' & Hk' & Hle & _).
  pose proof (Depth_fun _ _ _ Hk _ Hk'). lia.
Qed.

(** two children of the same object are not descendants of each other *)
Lemma sibling_not_desc p a b : In a (kids g p) -> In b (kids g p) -> desc g a b -> b = a.
Proof.
  intros Ha Hb Hd. destruct (R_In_kids t g HR _ _ Ha) as ((po & Hp & Hlp) & _).
  destruct (R_acyc _ _ HR _ _ Hp Hlp) as (k & Hk).
  pose proof (child_depth _ _ _ Ha Hk) as Hda. pose proof (child_depth _ _ _ Hb Hk) as Hdb.
  destruct (desc_depth _ _ Hd _ Hda) as (k' & Hk' & Hle & Heq).
  pose proof (Depth_fun _ _ _ Hdb _ Hk'). apply Heq. lia.
Qed.

(** the previous sibling of a child is a child too *)
Lemma chain_prev_in p pv l nx c : chain t p pv l nx -> In c l ->
  exists o, get t c = Some o /\ (o_prev o = pv \/ In (o_prev o) l).
Proof.
  revert pv. induction l as [|x l IH]; intros pv Hc Hin; [contradiction|].
  cbn [chain] in Hc. destruct Hc as ((o & Hg & _ & _ & Hpv & _) & Hrest). destruct Hin as [->|Hin].
  - exists o. split; auto.
  - destruct (IH x Hrest Hin) as (o' & Hg' & [E|E]); exists o'; split; auto; right; [rewrite E; left; reflexivity|right; exact E].
Qed.

End Depth.

(** ---- rearrangements inside a set of objects ---- *)
Definition closed (g : ghost) (S : N -> Prop) : Prop := forall y c, S y -> In c (kids g y) -> S c.

Record reloc (g g' : ghost) (S : N -> Prop) : Prop := mkReloc {
  rl_len : length (g_kids g') = length (g_kids g);
  rl_free : g_free g' = g_free g;
  rl_out : forall y, ~ S y -> kids g' y = kids g y;
  rl_kids : forall y c, In c (kids g' y) -> In c (kids g y) \/ (S y /\ S c)
}.

Lemma reloc_refl g S : reloc g g S.
Proof. constructor; auto. Qed.

Lemma reloc_trans g0 g1 g2 S : reloc g0 g1 S -> reloc g1 g2 S -> reloc g0 g2 S.
Proof.
  intros [A1 A2 A3 A4] [B1 B2 B3 B4]. constructor; [congruence|congruence| |].
  - intros y Hy. rewrite B3, A3; auto.
  - intros y c Hin. destruct (B4 _ _ Hin) as [H|H]; auto.
Qed.

Lemma reloc_glive g g' S x : reloc g g' S -> (glive g x <-> glive g' x).
Proof. intros [A1 A2 _ _]. unfold glive. rewrite A1, A2. tauto. Qed.

Lemma closed_desc g x : closed g (desc g x).
Proof. intros y c Hy Hin. eapply desc_step; eauto. Qed.

Lemma desc_in_closed g S p y : closed g S -> S p -> desc g p y -> S y.
Proof. intros Hc Hp Hd. induction Hd as [|q c Hd IH Hin]; auto. eapply Hc; eauto. Qed.

Lemma reloc_closed g g' S : closed g S -> reloc g g' S -> closed g' S.
Proof. intros Hc [_ _ _ A4] y c Hy Hin. destruct (A4 _ _ Hin) as [H|(_ & H)]; auto. eapply Hc; eauto. Qed.

(** a rearrangement inside a smaller set is one inside a bigger set *)
Lemma reloc_lift g g' (S1 S2 : N -> Prop) : (forall y, S1 y -> S2 y) -> reloc g g' S1 -> reloc g g' S2.
Proof.
  intros Hsub [A1 A2 A3 A4]. constructor; [exact A1|exact A2| |].
  - intros y Hy. apply A3. intros H1. apply Hy. apply Hsub. exact H1.
  - intros y c Hin. destruct (A4 _ _ Hin) as [H|(H1 & H2)]; auto.
Qed.

(** the two edits of attachSiblingsAsArgs *)
Lemma reloc_detach g o a (S : N -> Prop) : o < N.of_nat (length (g_kids g)) -> S o -> reloc g (astep g (OpDetach o a)) S.
Proof.
  intros Ho HS. cbn [astep]. constructor; [apply set_kids_len|apply set_kids_free| |].
  - intros y Hy. rewrite kids_set_kids by auto. destruct (N.eqb_spec y o) as [->|Hne]; [contradiction|reflexivity].
  - intros y c. rewrite kids_set_kids by auto. destruct (N.eqb_spec y o) as [->|Hne]; auto.
    intros Hin. left. clear -Hin. induction (kids g o) as [|x l IH]; cbn [remove1] in Hin; [contradiction|].
    destruct (x =? a); [right; exact Hin|]. destruct Hin as [->|Hin]; [left; reflexivity|right; auto].
Qed.

Lemma reloc_append g o a (S : N -> Prop) : o < N.of_nat (length (g_kids g)) -> S o -> S a -> reloc g (astep g (OpAppend o a)) S.
Proof.
  intros Ho HS Ha. cbn [astep]. constructor; [apply set_kids_len|apply set_kids_free| |].
  - intros y Hy. rewrite kids_set_kids by auto. destruct (N.eqb_spec y o) as [->|Hne]; [contradiction|reflexivity].
  - intros y c. rewrite kids_set_kids by auto. destruct (N.eqb_spec y o) as [->|Hne]; auto.
    intros Hin. apply in_app_or in Hin. destruct Hin as [Hin|[<-|[]]]; auto.
Qed.

Lemma remove1_In a l x : In x (remove1 a l) -> In x l.
Proof.
  induction l as [|y l IH]; cbn [remove1]; [tauto|].
  destruct (y =? a); [intros H; right; exact H|]. intros [->|H]; [left; reflexivity|right; auto].
Qed.

(** ---- links of an object at a known position of its parent's child list ---- *)
Section Links.
Context {V : Type} (t : ObjectTree V) (g : ghost) (HR : R t g).

Lemma sibling_links p l1 c l2 : glive g p -> kids g p = l1 ++ c :: l2 ->
  exists o, get t c = Some o /\ o_opcode o <> opFreed /\ o_parent o = p /\
            o_prev o = last l1 InvalidIndex /\ o_next o = hd InvalidIndex l2 /\ o_index o = c.
Proof.
  intros Hl Hk. apply (R_live_glive t g HR) in Hl. destruct Hl as (po & Hpo & Hlpo).
  destruct (R_kids _ _ HR _ _ Hpo Hlpo) as (_ & _ & Hch & _). rewrite Hk in Hch.
  destruct (chain_mid _ _ _ _ _ Hch) as (o & Ho & Hlo & Hp & Hpv & Hnx).
  exists o. repeat split; auto. apply (R_index _ _ HR _ _ Ho).
Qed.

Lemma root_links x : glive g x -> groot g x ->
  exists o, get t x = Some o /\ o_opcode o <> opFreed /\ o_parent o = InvalidIndex /\ o_next o = InvalidIndex.
Proof.
  intros Hl Hr. apply (R_live_glive t g HR) in Hl. destruct Hl as (o & Ho & Hlo).
  pose proof (proj1 (R_groot t g HR x o Ho Hlo) Hr) as Hp.
  pose proof (R_up _ _ HR _ _ Ho Hlo) as Hup. rewrite Hp, N.eqb_refl in Hup. destruct Hup as (_ & Hn).
  exists o. auto.
Qed.

Lemma live_root_or_child x : glive g x -> groot g x \/ exists p, In x (kids g p).
Proof.
  intros Hl. apply (R_live_glive t g HR) in Hl. destruct Hl as (o & Ho & Hlo).
  destruct (N.eqb_spec (o_parent o) InvalidIndex) as [E|E].
  - left. apply (R_groot t g HR x o Ho Hlo). exact E.
  - right. exists (o_parent o). apply (R_parent_live t g HR x o Ho Hlo E).
Qed.

(** a descendant one level below is a child *)
Lemma desc_one_level a x ka : desc g a x -> Depth t a ka -> Depth t x (S ka) -> In x (kids g a).
Proof.
  intros Hd Ha Hx. destruct Hd as [|p c Hd Hin].
  - pose proof (Depth_fun _ _ _ Ha _ Hx). lia.
  - destruct (desc_depth t g HR _ _ Hd _ Ha) as (kp & Hkp & Hle & Heq).
    pose proof (child_depth t g HR _ _ _ Hin Hkp) as Hc. pose proof (Depth_fun _ _ _ Hx _ Hc) as E.
    assert (p = a) by (apply Heq; lia). subst p. exact Hin.
Qed.

(** a sibling of the parent is not an ancestor *)
Lemma uncle_not_desc gp p u x : In p (kids g gp) -> In u (kids g gp) -> u <> p -> In x (kids g p) -> ~ desc g u x.
Proof.
  intros Hp Hu Hne Hx Hd.
  destruct (R_In_kids t g HR _ _ Hp) as ((gpo & Hgp & Hlgp) & _).
  destruct (R_acyc _ _ HR _ _ Hgp Hlgp) as (k & Hk).
  pose proof (child_depth t g HR _ _ _ Hp Hk) as Hdp. pose proof (child_depth t g HR _ _ _ Hu Hk) as Hdu.
  pose proof (child_depth t g HR _ _ _ Hx Hdp) as Hdx.
  pose proof (desc_one_level u x (S k) Hd Hdu Hdx) as Hin.
  apply Hne. eapply (R_parent_unique t g HR); eauto.
Qed.
End Links.

(** ---- sublists ---- *)
Inductive sublist {A} : list A -> list A -> Prop :=
| sl_nil : sublist [] []
| sl_skip x l1 l2 : sublist l1 l2 -> sublist l1 (x :: l2)
| sl_keep x l1 l2 : sublist l1 l2 -> sublist (x :: l1) (x :: l2).

Lemma sublist_refl {A} (l : list A) : sublist l l.
Proof. induction l; [apply sl_nil|apply sl_keep; auto]. Qed.

Lemma sublist_nil {A} (l : list A) : sublist [] l.
Proof. induction l; [apply sl_nil|apply sl_skip; auto]. Qed.

Lemma sublist_trans {A} (a b c : list A) : sublist a b -> sublist b c -> sublist a c.
Proof.
  intros H1 H2. revert a H1. induction H2 as [|x l1 l2 H2 IH|x l1 l2 H2 IH]; intros a H1.
  - exact H1.
  - apply sl_skip. apply IH. exact H1.
  - inversion H1; subst; [apply sl_skip; apply IH; auto|apply sl_keep; apply IH; auto].
Qed.

Lemma sublist_In {A} (a b : list A) x : sublist a b -> In x a -> In x b.
Proof. induction 1; intros Hin; cbn in *; auto. destruct Hin; auto. Qed.

Lemma sublist_app {A} (a1 a2 b1 b2 : list A) : sublist a1 b1 -> sublist a2 b2 -> sublist (a1 ++ a2) (b1 ++ b2).
Proof. induction 1; intros H2; cbn [app]; [exact H2|apply sl_skip; auto|apply sl_keep; auto]. Qed.

Lemma sublist_app_split {A} (k a b : list A) : sublist k (a ++ b) ->
  exists ka kb, k = ka ++ kb /\ sublist ka a /\ sublist kb b.
Proof.
  revert k. induction a as [|x a IH]; intros k H; cbn [app] in H.
  - exists [], k. repeat split; auto. apply sl_nil.
  - inversion H; subst.
    + destruct (IH _ H2) as (ka & kb & E & A1 & A2). exists ka, kb. repeat split; auto. apply sl_skip; auto.
    + destruct (IH _ H2) as (ka & kb & E & A1 & A2). exists (x :: ka), kb. subst. repeat split; auto. apply sl_keep; auto.
Qed.

Lemma sublist_remove1 a l : sublist (remove1 a l) l.
Proof.
  induction l as [|x l IH]; cbn [remove1]; [apply sl_nil|].
  destruct (x =? a); [apply sl_skip; apply sublist_refl|apply sl_keep; exact IH].
Qed.

(** in a sublist the elements behind an element are among those behind it in the list *)
Lemma sublist_suffix {A} (P : A -> Prop) (k l : list A) : sublist k l ->
  (forall l1 a l2, l = l1 ++ a :: l2 -> P a -> Forall P l2) ->
  forall k1 a k2, k = k1 ++ a :: k2 -> P a -> Forall P k2.
Proof.
  induction 1 as [|x k l Hs IH|x k l Hs IH]; intros Hl k1 a k2 E Pa.
  - destruct k1; discriminate.
  - apply (IH (fun l1 b l2 El => Hl (x :: l1) b l2 (f_equal (cons x) El)) k1 a k2 E Pa).
  - destruct k1 as [|y k1]; cbn [app] in E; inversion E; subst.
    + pose proof (Hl [] a l eq_refl Pa) as Hall. rewrite Forall_forall in *. intros z Hz. apply Hall. eapply sublist_In; eauto.
    + apply (IH (fun l1 b l2 El => Hl (y :: l1) b l2 (f_equal (cons y) El)) k1 a k2 eq_refl Pa).
Qed.

(** ---- the forest as mergeScopeDirectives changes it: child lists lose elements and gain elements of [S] at the end ---- *)
Definition kev (S : N -> Prop) (g g' : ghost) : Prop :=
  forall p, exists keep app, kids g' p = keep ++ app /\ sublist keep (kids g p) /\ Forall S app.

Lemma kev_refl S g : kev S g g.
Proof. intros p. exists (kids g p), []. rewrite app_nil_r. repeat split; auto using sublist_refl. Qed.

Lemma kev_trans S g0 g1 g2 : kev S g0 g1 -> kev S g1 g2 -> kev S g0 g2.
Proof.
  intros A4 B4 p. destruct (B4 p) as (k2 & a2 & E2 & S2 & F2). destruct (A4 p) as (k1 & a1 & E1 & S1 & F1).
  rewrite E1 in S2. destruct (sublist_app_split _ _ _ S2) as (ka & kb & E & Ska & Skb). subst k2.
  exists ka, (kb ++ a2). rewrite E2, <- app_assoc. repeat split; auto.
  - eapply sublist_trans; eauto.
  - apply Forall_app. split; auto. rewrite Forall_forall in *. intros z Hz. apply F1. eapply sublist_In; eauto.
Qed.

Lemma kev_weaken (S S' : N -> Prop) g g' : (forall y, S y -> S' y) -> kev S g g' -> kev S' g g'.
Proof.
  intros Hsub A4 p. destruct (A4 p) as (k & apx & E & Sk & F). exists k, apx. repeat split; auto. eapply Forall_impl; eauto.
Qed.

Lemma kev_remove1 S g g' x : (forall p, kids g' p = remove1 x (kids g p)) -> kev S g g'.
Proof. intros H p. exists (remove1 x (kids g p)), []. rewrite app_nil_r. split; [apply H|]. split; [apply sublist_remove1|constructor]. Qed.

Record evolve (S : N -> Prop) (g g' : ghost) : Prop := mkEvolve {
  ev_len : length (g_kids g') = length (g_kids g);
  ev_live : forall y, glive g' y -> glive g y;
  ev_keep : forall y, glive g y -> ~ S y -> glive g' y;
  ev_kids : kev S g g'
}.

Lemma evolve_refl S g : evolve S g g.
Proof. constructor; auto. apply kev_refl. Qed.

Lemma evolve_trans S g0 g1 g2 : evolve S g0 g1 -> evolve S g1 g2 -> evolve S g0 g2.
Proof. intros [A1 A2 A3 A4] [B1 B2 B3 B4]. constructor; [congruence|auto|auto|eapply kev_trans; eauto]. Qed.

Lemma evolve_weaken (S S' : N -> Prop) g g' : (forall y, S y -> S' y) -> evolve S g g' -> evolve S' g g'.
Proof. intros Hsub [A1 A2 A3 A4]. constructor; auto. eapply kev_weaken; eauto. Qed.

(** what an enclosing set keeps: its elements form suffixes of the child lists, and it is closed under children *)
Definition suffixes (S : N -> Prop) (g : ghost) : Prop :=
  forall p l1 a l2, kids g p = l1 ++ a :: l2 -> S a -> Forall S l2.

Lemma app_split_cases {A} (k apx l1 l2 : list A) (a : A) : k ++ apx = l1 ++ a :: l2 ->
  (exists k2, k = l1 ++ a :: k2 /\ l2 = k2 ++ apx) \/ (exists m, l1 = k ++ m /\ apx = m ++ a :: l2).
Proof.
  revert l1. induction k as [|x k IH]; intros l1 Ek; cbn [List.app] in Ek.
  - right. exists l1. auto.
  - destruct l1 as [|y l1]; cbn [List.app] in Ek; inversion Ek; subst.
    + left. exists k. auto.
    + destruct (IH l1 H1) as [(k2 & E1 & E2)|(m & E1 & E2)]; [left; exists k2; subst; auto|right; exists m; subst; auto].
Qed.

Lemma kev_suffixes (S T : N -> Prop) g g' : (forall y, S y -> T y) -> kev S g g' -> suffixes T g -> suffixes T g'.
Proof.
  intros Hsub Hev Hsuf p l1 a l2 Ek Ta. destruct (Hev p) as (k & apx & E & Sk & F).
  rewrite E in Ek.
  assert (Happ : Forall T apx) by (eapply Forall_impl; [|exact F]; auto).
  destruct (app_split_cases _ _ _ _ _ Ek) as [(k2 & E1 & E2)|(m & E1 & E2)].
  - subst l2. apply Forall_app. split; [|exact Happ].
    apply (sublist_suffix T k (kids g p) Sk (Hsuf p) l1 a k2 E1 Ta).
  - subst apx. apply Forall_app in Happ. destruct Happ as (_ & Happ). inversion Happ; auto.
Qed.

Lemma kev_closed (S T : N -> Prop) g g' : (forall y, S y -> T y) -> kev S g g' -> closed g T -> closed g' T.
Proof.
  intros Hsub Hev Hc y c Ty Hin. destruct (Hev y) as (k & apx & E & Sk & F).
  rewrite E in Hin. apply in_app_or in Hin. destruct Hin as [Hin|Hin].
  - apply (Hc y c Ty). eapply sublist_In; eauto.
  - apply Hsub. rewrite Forall_forall in F. apply F. exact Hin.
Qed.

Lemma evolve_suffixes (S T : N -> Prop) g g' : (forall y, S y -> T y) -> evolve S g g' -> suffixes T g -> suffixes T g'.
Proof. intros Hsub Hev. eapply kev_suffixes; [exact Hsub|apply (ev_kids _ _ _ Hev)]. Qed.

Lemma evolve_closed (S T : N -> Prop) g g' : (forall y, S y -> T y) -> evolve S g g' -> closed g T -> closed g' T.
Proof. intros Hsub Hev. eapply kev_closed; [exact Hsub|apply (ev_kids _ _ _ Hev)]. Qed.
