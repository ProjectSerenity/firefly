(** C11 (fragment proofs): exact Hoare-style reasoning about the parser model.

    The parser's object pool is described by a ghost forest [g] (C13's relation [R], Aml/TreeSpec.v) together
    with the list [pl] of the payloads of the pool slots ([Rep t g pl]).  Every tree primitive of the parser
    monad gets an exact step lemma: what it returns and the [Rep] of the new pool.  The lemmas are stated for
    the weakest-precondition predicate [wp] of Aml/ParserTotalBase.v (with [P := False]: no panic and no
    out-of-fuel). *)
From Coq Require Import NArith ZArith Arith List Bool Lia.
From Coq Require Import ZifyBool ZifyN ZifyNat.
From FF Require Import Lib.Word Gen.Consts_device_acpi_aml Gen.Consts_aml_tree Aml.Stream Aml.Lex Aml.LexProofs
  Aml.Tree Aml.TreeSpec Aml.TreeProofs Aml.TreeProofsOps Aml.TreeProofsFind Aml.Parser
  Aml.ParserTotalTree Aml.ParserTotalTree2 Aml.ParserTotalLex Aml.ParserTotalTable Aml.ParserTotalBase.
Import ListNotations.
Local Open Scope N_scope.

Ltac scbn := cbn [p_r p_tree p_scopeStack p_pkgEndStack p_streamEnd p_resolvePasses p_mergedScopes p_relocatedObjects
                  p_allBlocks p_handle p_tables
                  with_r with_tree with_scopeStack with_pkgEndStack with_counters with_allBlocks].

(** ---- payloads ---- *)
Record pay : Type := mkPay {
  y_op : N; y_info : N; y_th : N; y_name : Name; y_off : N; y_pkgEnd : N; y_val : option value
}.

Definition pay_of (o : Obj) : pay :=
  mkPay (o_opcode o) (o_infoIndex o) (o_tableHandle o) (o_name o) (o_amlOffset o) (o_pkgEnd o) (o_value o).

Definition pget (pl : list pay) (i : N) : option pay := nth_error pl (N.to_nat i).
Definition pupd (pl : list pay) (i : N) (f : pay -> pay) : list pay := list_upd pl (N.to_nat i) f.

Record Rep (t : T) (g : ghost) (pl : list pay) : Prop := mkRep {
  rep_R : R t g;
  rep_pl : map pay_of (t_pool t) = pl
}.

(** ---- lists ---- *)
Lemma nth_error_ext_eq {A} : forall (l l' : list A), (forall n, nth_error l n = nth_error l' n) -> l = l'.
Proof.
  induction l as [|x l IH]; intros [|y l'] H; auto.
  - specialize (H O). discriminate.
  - specialize (H O). discriminate.
  - pose proof (H O) as H0. cbn in H0. inversion H0; subst. f_equal. apply IH. intros n. apply (H (S n)).
Qed.

Lemma map_list_upd {A B} (h : A -> B) (f : A -> A) (f' : B -> B) :
  (forall x, h (f x) = f' (h x)) -> forall l n, map h (list_upd l n f) = list_upd (map h l) n f'.
Proof.
  intros Hf. induction l as [|x l IH]; intros n; cbn [list_upd map]; [destruct n; reflexivity|].
  destruct n; cbn [map]; [rewrite Hf; reflexivity|rewrite IH; reflexivity].
Qed.

Lemma list_upd_app_last {A} (l : list A) x f : list_upd (l ++ [x]) (length l) f = l ++ [f x].
Proof. induction l as [|y l IH]; cbn [app length list_upd]; [reflexivity|rewrite IH; reflexivity]. Qed.

Lemma pget_pupd pl i f j : pget (pupd pl i f) j = if j =? i then option_map f (pget pl j) else pget pl j.
Proof.
  unfold pget, pupd. rewrite nth_error_list_upd.
  destruct (N.eqb_spec j i) as [->|Hne]; [rewrite Nat.eqb_refl; reflexivity|].
  destruct (Nat.eqb_spec (N.to_nat j) (N.to_nat i)) as [E|E]; [apply N2Nat.inj in E; contradiction|reflexivity].
Qed.

Lemma pupd_length pl i f : length (pupd pl i f) = length pl.
Proof. apply list_upd_length. Qed.

Lemma pget_app_old pl x i : i < N.of_nat (length pl) -> pget (pl ++ x) i = pget pl i.
Proof. intros H. unfold pget. apply nth_error_app1. lia. Qed.

Lemma pget_app_new pl x i : pget (pl ++ x) (N.of_nat (length pl) + i) = pget x i.
Proof. unfold pget. rewrite nth_error_app2 by lia. f_equal. lia. Qed.

Lemma pget_app_l pl x i : i < N.of_nat (length pl) -> pget (pl ++ [x]) i = pget pl i.
Proof. apply pget_app_old. Qed.

Lemma pget_app_last pl x : pget (pl ++ [x]) (N.of_nat (length pl)) = Some x.
Proof. unfold pget. rewrite Nat2N.id, nth_error_app2 by lia. rewrite Nat.sub_diag. reflexivity. Qed.

Lemma pget_lt pl i a : pget pl i = Some a -> i < N.of_nat (length pl).
Proof. unfold pget. intros H. assert (nth_error pl (N.to_nat i) <> None) by congruence. apply nth_error_Some in H0. lia. Qed.

Lemma pget_none pl i : N.of_nat (length pl) <= i -> pget pl i = None.
Proof. intros H. unfold pget. apply nth_error_None. lia. Qed.

Lemma pupd_app_last pl x f : pupd (pl ++ [x]) (N.of_nat (length pl)) f = pl ++ [f x].
Proof. unfold pupd. rewrite Nat2N.id. apply list_upd_app_last. Qed.

(** ---- reading through [Rep] ---- *)
Section RepFacts.
Context (t : T) (g : ghost) (pl : list pay) (H : Rep t g pl).

Lemma rep_len_pool : length pl = length (t_pool t).
Proof. rewrite <- (rep_pl _ _ _ H). apply map_length. Qed.

Lemma rep_len_g : length (g_kids g) = length pl.
Proof. rewrite rep_len_pool. apply (R_len _ _ (rep_R _ _ _ H)). Qed.

Lemma rep_get i a : pget pl i = Some a -> exists o, tget t i = Some o /\ pay_of o = a.
Proof.
  unfold pget, TreeSpec.get. rewrite <- (rep_pl _ _ _ H), nth_error_map.
  destruct (nth_error (t_pool t) (N.to_nat i)) as [o|]; cbn [option_map]; [|discriminate].
  intros E; inversion E. eauto.
Qed.

Lemma rep_get_inv i o : tget t i = Some o -> pget pl i = Some (pay_of o).
Proof. unfold pget, TreeSpec.get. rewrite <- (rep_pl _ _ _ H), nth_error_map. intros ->. reflexivity. Qed.

Lemma rep_live i a : pget pl i = Some a -> y_op a <> opFreed -> glive g i.
Proof.
  intros Hg Hl. destruct (rep_get _ _ Hg) as (o & Ho & E). apply (R_live_glive _ _ (rep_R _ _ _ H)).
  exists o. split; auto. subst a. exact Hl.
Qed.

Lemma rep_glive i : glive g i -> exists a, pget pl i = Some a /\ y_op a <> opFreed.
Proof.
  intros Hl. apply (R_live_glive _ _ (rep_R _ _ _ H)) in Hl. destruct Hl as (o & Ho & Hl).
  exists (pay_of o). split; [apply rep_get_inv; exact Ho|exact Hl].
Qed.

Lemma rep_ObjectAt i a : pget pl i = Some a -> y_op a <> opFreed -> ObjectAt t i = Some i.
Proof.
  intros Hg Hl. destruct (rep_get _ _ Hg) as (o & Ho & E). eapply ObjectAt_live; eauto.
  - apply (R_bound _ _ (rep_R _ _ _ H)).
  - subst a. exact Hl.
Qed.

Lemma rep_obj i a : pget pl i = Some a -> y_op a <> opFreed ->
  exists o, tget t i = Some o /\ pay_of o = a /\ o_index o = i /\
            o_first o = hd InvalidIndex (kids g i) /\ o_last o = last (kids g i) InvalidIndex.
Proof.
  intros Hg Hl. destruct (rep_get _ _ Hg) as (o & Ho & E). exists o. split; auto. split; auto.
  split; [apply (R_index _ _ (rep_R _ _ _ H) _ _ Ho)|].
  assert (Hl' : o_opcode o <> opFreed) by (subst a; exact Hl).
  destruct (R_kids _ _ (rep_R _ _ _ H) _ _ Ho Hl') as (F & L & _). auto.
Qed.

Lemma rep_sib p l1 c l2 : kids g p = l1 ++ c :: l2 ->
  exists o, tget t c = Some o /\ o_opcode o <> opFreed /\ o_index o = c /\ o_parent o = p /\
            o_prev o = last l1 InvalidIndex /\ o_next o = hd InvalidIndex l2.
Proof.
  intros Hk. pose proof (rep_R _ _ _ H) as HR.
  assert (Hin : In c (kids g p)) by (rewrite Hk; apply in_or_app; right; left; reflexivity).
  destruct (R_In_kids _ _ HR _ _ Hin) as ((po & Hpo & Hlpo) & _).
  destruct (R_kids _ _ HR _ _ Hpo Hlpo) as (_ & _ & Hch & _). rewrite Hk in Hch.
  destruct (chain_mid _ _ _ _ _ Hch) as (o & Ho & Hlo & Hp & Hpv & Hn).
  exists o. repeat split; auto. apply (R_index _ _ HR _ _ Ho).
Qed.

Lemma rep_root i a : pget pl i = Some a -> y_op a <> opFreed -> groot g i ->
  exists o, tget t i = Some o /\ o_parent o = InvalidIndex /\ o_prev o = InvalidIndex /\ o_next o = InvalidIndex.
Proof.
  intros Hg Hl Hr. destruct (rep_get _ _ Hg) as (o & Ho & E). pose proof (rep_R _ _ _ H) as HR.
  assert (Hl' : o_opcode o <> opFreed) by (subst a; exact Hl).
  exists o. split; auto. pose proof (proj1 (R_groot _ _ HR _ _ Ho Hl') Hr) as Hp.
  pose proof (R_up _ _ HR _ _ Ho Hl') as Hu. rewrite Hp, N.eqb_refl in Hu. tauto.
Qed.
End RepFacts.

(** ---- the ghost of a fresh slot ---- *)
Definition gnew (g : ghost) : ghost := mkGhost (g_kids g ++ [[]]) [].

Lemma kids_gnew g i : kids (gnew g) i = kids g i.
Proof. apply kids_app_nil. Qed.

Lemma len_gnew g : length (g_kids (gnew g)) = S (length (g_kids g)).
Proof. unfold gnew. cbn [g_kids]. rewrite app_length. cbn [length]. lia. Qed.

Lemma glive_gnew g x : g_free g = [] -> glive g x -> glive (gnew g) x.
Proof. intros Hf [A B]. split; [rewrite len_gnew; lia|cbn; tauto]. Qed.

Lemma glive_gnew_new g : glive (gnew g) (N.of_nat (length (g_kids g))).
Proof. split; [rewrite len_gnew; lia|cbn; tauto]. Qed.

Lemma len_set_kids g i l : length (g_kids (set_kids g i l)) = length (g_kids g).
Proof. apply set_kids_len. Qed.

(** ---- frames ---- *)
Lemma pay_eq_pay_of (o o' : Obj) : pay_eq o o' -> pay_of o' = pay_of o.
Proof. intros (E1 & E2 & E3 & E4 & E5 & E6 & E7 & E8). unfold pay_of. congruence. Qed.

Lemma pframe_pay (t t' : T) : pframe t t' -> map pay_of (t_pool t') = map pay_of (t_pool t).
Proof.
  intros [L Hf]. apply nth_error_ext_eq. intros n. rewrite !nth_error_map.
  destruct (nth_error (t_pool t) n) as [o|] eqn:E.
  - assert (Hg : tget t (N.of_nat n) = Some o) by (unfold TreeSpec.get; rewrite Nat2N.id; exact E).
    destruct (Hf _ _ Hg) as (o' & Hg' & Ep). unfold TreeSpec.get in Hg'. rewrite Nat2N.id in Hg'. rewrite Hg'.
    cbn [option_map]. f_equal. apply pay_eq_pay_of. exact Ep.
  - apply nth_error_None in E. assert (E' : nth_error (t_pool t') n = None) by (apply nth_error_None; lia).
    rewrite E'. reflexivity.
Qed.

(** ---- the tree edits ---- *)
Lemma rep_new (t : T) g pl opc th idx :
  Rep t g pl -> g_free g = [] -> N.of_nat (length pl) < InvalidIndex -> opc <> opFreed -> opcode_in_maps opc ->
  opcodeTableIndex opc true = Some idx ->
  exists t', newObject t opc th = Ok (t', N.of_nat (length pl)) /\
             Rep t' (gnew g) (pl ++ [mkPay opc idx th name_zero 0 0 None]).
Proof.
  intros H Hf Hroom Hopc Hmaps Hidx. pose proof (rep_R _ _ _ H) as HR.
  pose proof (rep_len_pool _ _ _ H) as Hlen. pose proof (rep_len_g _ _ _ H) as Hleng.
  destruct (newObject_R t g opc th HR) as (t' & p & E & HR' & _ & Hp).
  { split; auto. split; auto. intros _. rewrite Hleng. exact Hroom. }
  rewrite Hf in Hp. cbn [astep] in HR'. rewrite Hf in HR'. fold (gnew g) in HR'.
  exists t'. rewrite Hlen, <- Hp. split; [exact E|]. split; [exact HR'|].
  (* the payloads *)
  assert (Hfree : t_free t = InvalidIndex).
  { destruct (R_flist _ _ HR) as [Hc _]. rewrite Hf in Hc. exact Hc. }
  unfold newObject in E. rewrite Hfree, N.eqb_refl in E. cbn [bind] in E.
  rewrite pOpcodeTableIndex_eq, Hidx in E. cbn [bind] in E.
  set (t1 := mkTree (t_pool t ++ [blank_object (pool_len t)]) InvalidIndex) in E.
  assert (G1 : tget t1 (N.of_nat (length (t_pool t))) = Some (blank_object (pool_len t))).
  { unfold TreeSpec.get, t1. cbn [t_pool]. rewrite Nat2N.id, nth_error_app2 by lia. rewrite Nat.sub_diag. reflexivity. }
  rewrite (wr_ok _ _ _ _ G1) in E. cbn [bind] in E. inversion E; subst t' p.
  unfold tset, t1. cbn [t_pool]. rewrite Nat2N.id, list_upd_app_last, map_app, (rep_pl _ _ _ H). reflexivity.
Qed.

Lemma rep_tset (t : T) g pl p a f f' :
  Rep t g pl -> pget pl p = Some a -> y_op a <> opFreed ->
  (forall o, o_opcode o <> opFreed -> lk_eq o (f o)) -> (forall o, pay_of (f o) = f' (pay_of o)) ->
  Rep (tset t p f) g (pupd pl p f').
Proof.
  intros H Hg Hl Hlk Hf. destruct (rep_get _ _ _ H _ _ Hg) as (o & Ho & E). split.
  - apply R_tset_lk; [apply (rep_R _ _ _ H)|]. intros o' Ho'. apply Hlk. assert (o' = o) by congruence. subst. exact Hl.
  - unfold tset, pupd. cbn [t_pool]. rewrite (map_list_upd pay_of f f' Hf), (rep_pl _ _ _ H). reflexivity.
Qed.

Lemma rep_append (t : T) g pl o a :
  Rep t g pl -> glive g o -> glive g a -> groot g a -> ~ desc g a o ->
  exists t', append t o a = Ok t' /\ Rep t' (set_kids g o (kids g o ++ [a])) pl.
Proof.
  intros H H1 H2 H3 H4. destruct (append_full2 t g o a (rep_R _ _ _ H) H1 H2 H3 H4) as (t' & E & HR' & Hpf).
  exists t'. split; auto. split; [exact HR'|]. rewrite (pframe_pay _ _ Hpf). apply (rep_pl _ _ _ H).
Qed.

Lemma rep_detach (t : T) g pl o a :
  Rep t g pl -> In a (kids g o) ->
  exists t', detach t o a = Ok t' /\ Rep t' (set_kids g o (remove1 a (kids g o))) pl.
Proof.
  intros H Hin. destruct (detach_full t g o a (rep_R _ _ _ H) Hin) as (t' & E & HR' & Hpf).
  exists t'. split; auto. split; [exact HR'|]. rewrite (pframe_pay _ _ Hpf). apply (rep_pl _ _ _ H).
Qed.

(** ---- payload setters ---- *)
Definition ys_opcode (v : N) (a : pay) : pay := mkPay v (y_info a) (y_th a) (y_name a) (y_off a) (y_pkgEnd a) (y_val a).
Definition ys_info (v : N) (a : pay) : pay := mkPay (y_op a) v (y_th a) (y_name a) (y_off a) (y_pkgEnd a) (y_val a).
Definition ys_name (v : Name) (a : pay) : pay := mkPay (y_op a) (y_info a) (y_th a) v (y_off a) (y_pkgEnd a) (y_val a).
Definition ys_off (v : N) (a : pay) : pay := mkPay (y_op a) (y_info a) (y_th a) (y_name a) v (y_pkgEnd a) (y_val a).
Definition ys_pkgEnd (v : N) (a : pay) : pay := mkPay (y_op a) (y_info a) (y_th a) (y_name a) (y_off a) v (y_val a).
Definition ys_val (v : option value) (a : pay) : pay := mkPay (y_op a) (y_info a) (y_th a) (y_name a) (y_off a) (y_pkgEnd a) v.

(** [setter f f']: the write [f] keeps the links and acts as [f'] on the payload *)
Definition setter (f : Obj -> Obj) (f' : pay -> pay) : Prop :=
  (forall o, o_opcode o <> opFreed -> lk_eq o (f o)) /\ (forall o, pay_of (f o) = f' (pay_of o)).

Ltac setter_tac := split; [intros o Ho; unfold lk_eq; cbn; repeat split; auto; intros; try contradiction; try congruence
                          |intros o; reflexivity].

Lemma st_amlOffset v : setter (set_amlOffset v) (ys_off v). Proof. setter_tac. Qed.
Lemma st_pkgEnd v : setter (set_pkgEnd v) (ys_pkgEnd v). Proof. setter_tac. Qed.
Lemma st_value v : setter (set_value v) (ys_val v). Proof. setter_tac. Qed.
Lemma st_name v : setter (set_name v) (ys_name v). Proof. setter_tac. Qed.
Lemma st_infoIndex v : setter (set_infoIndex v) (ys_info v). Proof. setter_tac. Qed.
Lemma st_opcode v : v <> opFreed -> setter (set_opcode v) (ys_opcode v).
Proof. intros Hv. split; [intros o Ho; unfold lk_eq; cbn; repeat split; auto; intros; congruence|intros o; reflexivity]. Qed.

(** ---- wp steps over [Rep] ---- *)
Lemma wp_newObj_rep P opc idx s g pl (Q : N -> pstate -> Prop) :
  Rep (p_tree s) g pl -> g_free g = [] -> N.of_nat (length pl) < InvalidIndex -> opc <> opFreed -> opcode_in_maps opc ->
  opcodeTableIndex opc true = Some idx ->
  (forall t', Rep t' (gnew g) (pl ++ [mkPay opc idx (p_handle s) name_zero 0 0 None]) ->
              Q (N.of_nat (length pl)) (with_tree s t')) ->
  wp P (newObj opc) s Q.
Proof.
  intros H Hf Hroom Ho Hm Hi K. destruct (rep_new _ _ _ opc (p_handle s) idx H Hf Hroom Ho Hm Hi) as (t' & E & H').
  unfold wp, newObj. rewrite E. apply K. exact H'.
Qed.

Lemma wp_wrf_rep P p f f' a s g pl (Q : unit -> pstate -> Prop) :
  Rep (p_tree s) g pl -> pget pl p = Some a -> y_op a <> opFreed -> setter f f' ->
  (forall t', Rep t' g (pupd pl p f') -> Q tt (with_tree s t')) ->
  wp P (wrf p f) s Q.
Proof.
  intros H Hg Hl [S1 S2] K. destruct (rep_get _ _ _ H _ _ Hg) as (o & Ho & _).
  apply wp_wrf; [eauto|]. apply K. eapply rep_tset; eauto.
Qed.

Lemma wp_append_rep P o a s g pl (Q : unit -> pstate -> Prop) :
  Rep (p_tree s) g pl -> glive g o -> glive g a -> groot g a -> ~ desc g a o ->
  (forall t', Rep t' (set_kids g o (kids g o ++ [a])) pl -> Q tt (with_tree s t')) ->
  wp P (appendM (Some o) a) s Q.
Proof.
  intros H H1 H2 H3 H4 K. destruct (rep_append _ _ _ _ _ H H1 H2 H3 H4) as (t' & E & H').
  apply wp_appendM. exists t'. split; auto.
Qed.

Lemma wp_detach_rep P o a s g pl (Q : unit -> pstate -> Prop) :
  Rep (p_tree s) g pl -> In a (kids g o) ->
  (forall t', Rep t' (set_kids g o (remove1 a (kids g o))) pl -> Q tt (with_tree s t')) ->
  wp P (detachM (Some o) (Some a)) s Q.
Proof.
  intros H Hin K. destruct (rep_detach _ _ _ _ _ H Hin) as (t' & E & H').
  apply wp_detachM. exists t'. split; auto.
Qed.

Lemma wp_rdo_rep P p a s g pl (Q : Obj -> pstate -> Prop) :
  Rep (p_tree s) g pl -> pget pl p = Some a -> y_op a <> opFreed ->
  (forall o, pay_of o = a -> o_index o = p -> o_first o = hd InvalidIndex (kids g p) ->
             o_last o = last (kids g p) InvalidIndex -> Q o s) ->
  wp P (rdo p) s Q.
Proof.
  intros H Hg Hl K. destruct (rep_obj _ _ _ H _ _ Hg Hl) as (o & Ho & E1 & E2 & E3 & E4).
  apply wp_rdo. exists o. split; auto.
Qed.

Lemma wp_rdf_rep P p (f : Obj -> N) a s g pl (Q : N -> pstate -> Prop) :
  Rep (p_tree s) g pl -> pget pl p = Some a -> y_op a <> opFreed ->
  (forall o, pay_of o = a -> o_index o = p -> o_first o = hd InvalidIndex (kids g p) ->
             o_last o = last (kids g p) InvalidIndex -> Q (f o) s) ->
  wp P (rdf p f) s Q.
Proof.
  intros H Hg Hl K. destruct (rep_obj _ _ _ H _ _ Hg Hl) as (o & Ho & E1 & E2 & E3 & E4).
  apply wp_rdf. exists o. split; auto.
Qed.

(** reading the sibling links of the child [c] of [p] *)
Lemma wp_rdf_sib P p l1 c l2 (f : Obj -> N) s g pl (Q : N -> pstate -> Prop) :
  Rep (p_tree s) g pl -> kids g p = l1 ++ c :: l2 ->
  (forall o, o_index o = c -> o_parent o = p -> o_prev o = last l1 InvalidIndex -> o_next o = hd InvalidIndex l2 ->
             pget pl c = Some (pay_of o) -> Q (f o) s) ->
  wp P (rdf c f) s Q.
Proof.
  intros H Hk K. destruct (rep_sib _ _ _ H _ _ _ _ Hk) as (o & Ho & _ & E1 & E2 & E3 & E4).
  apply wp_rdf. exists o. split; auto. apply K; auto. eapply rep_get_inv; eauto.
Qed.

Lemma wp_objectAt_rep P i a s g pl (Q : N -> pstate -> Prop) :
  Rep (p_tree s) g pl -> pget pl i = Some a -> y_op a <> opFreed -> Q i s -> wp P (objectAt' i) s Q.
Proof. intros H Hg Hl K. apply wp_objectAt'; auto. eapply rep_ObjectAt; eauto. Qed.

Lemma wp_need P (o : N) s (Q : N -> pstate -> Prop) : Q o s -> wp P (need (Some o)) s Q.
Proof. intros H. exact H. Qed.

(** from a [wp False] to the value *)
Lemma wp_run {A} (m : M A) s (Q : A -> pstate -> Prop) : wp False m s Q -> exists a s', m s = Ok (a, s') /\ Q a s'.
Proof. unfold wp. destruct (m s) as [[a s']| |]; [eauto|tauto|tauto]. Qed.

Lemma wp_of_run {A} P (m : M A) s a s' (Q : A -> pstate -> Prop) : m s = Ok (a, s') -> Q a s' -> wp P m s Q.
Proof. intros E H. unfold wp. rewrite E. exact H. Qed.

(** a computation may be replaced by one that does the same on the state at hand (stated as a lemma: unfolding [wp],
    rewriting and folding it again leaves a conversion that is dear to check) *)
Lemma wp_eqm {A} P (m m' : M A) s (Q : A -> pstate -> Prop) : m s = m' s -> wp P m' s Q -> wp P m s Q.
Proof. unfold wp. intros ->. auto. Qed.

Lemma wp_conseq {A} P (m : M A) s (Q Q' : A -> pstate -> Prop) :
  wp P m s Q' -> (forall a s', Q' a s' -> Q a s') -> wp P m s Q.
Proof. intros H K. eapply wp_weaken; eauto. Qed.
