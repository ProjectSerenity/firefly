(** C11 (fragment proofs): the argument loop of the first pass, argument by argument, for named objects whose
    arguments are [PkgLength] NameString (Byte|Word|DWord data)* [TermList] - the block-like objects ([next_blk]) and
    the leaf objects Mutex / Event / OperationRegion / Name ([next_leaf]) - and the first pass on a string
    ([next_string]) and on the header of a package ([next_pkg]). *)
From Coq Require Import NArith ZArith Arith List Bool Lia.
From Coq Require Import ZifyBool ZifyN ZifyNat.
From FF Require Import Lib.Word Gen.Consts_device_acpi_aml Gen.Consts_aml_tree Aml.Stream Aml.Lex Aml.LexProofs
  Aml.Tree Aml.TreeSpec Aml.TreeProofs Aml.TreeProofsOps Aml.TreeProofsFind Aml.Parser Aml.Grammar Aml.LexRoundtrip
  Aml.ParserTotalTree Aml.ParserTotalTree2 Aml.ParserTotalLex Aml.ParserTotalTable Aml.ParserTotalBase
  Aml.ParserFragBase Aml.ParserFragFirst Aml.ParserFragF0 Aml.ParserFragDev.
Import ListNotations.
Local Open Scope N_scope.

(** ---- the forest while arguments are appended to an object ---- *)
Definition g_arg1 (g : ghost) (cur : N) : ghost := set_kids (gnew g) cur (kids g cur ++ [N.of_nat (length (g_kids g))]).
Fixpoint g_args (g : ghost) (cur : N) (m : nat) : ghost :=
  match m with O => g | S j => g_arg1 (g_args g cur j) cur end.

Lemma g_args_shift g cur n : g_args (g_arg1 g cur) cur n = g_arg1 (g_args g cur n) cur.
Proof. induction n as [|n IHn]; [reflexivity|]. cbn [g_args]. rewrite IHn. reflexivity. Qed.

Lemma g_head_arg1 g sc : g_head g sc = g_arg1 g sc. Proof. reflexivity. Qed.

Lemma len_g_arg1 g cur : length (g_kids (g_arg1 g cur)) = S (length (g_kids g)).
Proof. unfold g_arg1. rewrite len_set_kids, len_gnew. reflexivity. Qed.

Lemma len_g_args g cur m : length (g_kids (g_args g cur m)) = (length (g_kids g) + m)%nat.
Proof. induction m as [|j IH]; cbn [g_args]; [lia|]. rewrite len_g_arg1, IH. lia. Qed.

Lemma free_g_arg1 g cur : g_free (g_arg1 g cur) = []. Proof. reflexivity. Qed.

Lemma free_g_args g cur m : g_free g = [] -> g_free (g_args g cur m) = [].
Proof. intros Hf. destruct m; [exact Hf|reflexivity]. Qed.

Lemma kids_g_arg1 g cur y : cur < N.of_nat (length (g_kids g)) ->
  kids (g_arg1 g cur) y = if y =? cur then kids g cur ++ [N.of_nat (length (g_kids g))] else kids g y.
Proof. intros Hc. unfold g_arg1. rewrite kids_set_kids by (rewrite len_gnew; lia). rewrite kids_gnew. reflexivity. Qed.

Fixpoint seqN (b : N) (m : nat) : list N := match m with O => [] | S j => b :: seqN (b + 1) j end.

Lemma seqN_snoc b m : seqN b (S m) = seqN b m ++ [b + N.of_nat m].
Proof.
  revert b. induction m as [|j IH]; intros b; [cbn; rewrite N.add_0_r; reflexivity|].
  change (seqN b (S (S j))) with (b :: seqN (b + 1) (S j)). rewrite IH. cbn [seqN app]. f_equal. f_equal. f_equal. lia.
Qed.

Lemma seqN_len b m : length (seqN b m) = m.
Proof. revert b. induction m as [|j IH]; intros b; cbn [seqN length]; [reflexivity|rewrite IH; reflexivity]. Qed.

Lemma seqN_in b m x : In x (seqN b m) <-> b <= x < b + N.of_nat m.
Proof.
  revert b. induction m as [|j IH]; intros b; cbn [seqN In]; [lia|]. rewrite IH. lia.
Qed.

Lemma kids_g_args g cur m y : cur < N.of_nat (length (g_kids g)) ->
  kids (g_args g cur m) y = if y =? cur then kids g cur ++ seqN (N.of_nat (length (g_kids g))) m else kids g y.
Proof.
  intros Hc. revert y. induction m as [|j IH]; intros y.
  - cbn [g_args seqN]. rewrite app_nil_r. destruct (y =? cur) eqn:E; [apply N.eqb_eq in E; subst; reflexivity|reflexivity].
  - cbn [g_args]. rewrite kids_g_arg1 by (rewrite len_g_args; lia). rewrite !IH, N.eqb_refl.
    destruct (y =? cur); [|reflexivity]. rewrite len_g_args, seqN_snoc, app_assoc. f_equal. f_equal. lia.
Qed.

(** appending the object that was just created *)
Lemma wp_append_new P cur (t0 : T) s g pl a (Q : unit -> pstate -> Prop) :
  Rep t0 g pl -> Rep (p_tree s) (gnew g) (pl ++ [a]) -> g_free g = [] -> cur < N.of_nat (length pl) ->
  (forall t', Rep t' (g_arg1 g cur) (pl ++ [a]) -> Q tt (with_tree s t')) ->
  wp P (appendM (Some cur) (N.of_nat (length pl))) s Q.
Proof.
  intros H0 H Hfree Hcur K. pose proof (rep_len_g _ _ _ H0) as Hlg.
  eapply wp_append_rep; [exact H| | | | |].
  - split; [rewrite len_gnew; lia|cbn; tauto].
  - split; [rewrite len_gnew; lia|cbn; tauto].
  - rewrite <- Hlg. eapply groot_fresh. apply (rep_R _ _ _ H0).
  - intros Hd. apply desc_leaf in Hd; [lia|]. rewrite kids_gnew. apply kids_oob. lia.
  - intros t' H'. apply K. unfold g_arg1. rewrite kids_gnew in H'. rewrite Hlg. exact H'.
Qed.

(** ---- widths of the fixed data arguments ---- *)
Inductive fw : Type := W1 | W2 | W4.
Definition fw_n (w : fw) : nat := match w with W1 => 1 | W2 => 2 | W4 => 4 end.
Definition fw_op (w : fw) : N := match w with W1 => aml_pOpBytePrefix | W2 => aml_pOpWordPrefix | W4 => aml_pOpDwordPrefix end.
Definition fw_info (w : fw) : N := match w with W1 => 4 | W2 => 5 | W4 => 6 end.
Definition fw_ty (w : fw) : N := match w with W1 => aml_pArgTypeByteData | W2 => aml_pArgTypeWordData | W4 => aml_pArgTypeDwordData end.
Definition fw_len (w : fw) : N := N.of_nat (fw_n w).

Definition num_pay (hd : N) (w : fw) (off v : N) : pay := mkPay (fw_op w) (fw_info w) hd name_zero off 0 (Some (VNum v)).

Lemma simpleArg_num_eq w :
  parseSimpleArg (fw_ty w) =
  (mlet obj <~ newObj 0 ;;
   mlet off <~ offsetM ;;
   wrf obj (set_amlOffset off) ;;;
   mlet tbl <~ curTable ;;
   wrf obj (set_opcode (fw_op w)) ;;;
   mlet '(v, ok) <~ lex (parseNumConstant (fw_len w)) ;;
   wrf obj (set_value (Some (VNum v))) ;;;
   mlet idx <~ tableIndex (fw_op w) true ;;
   wrf obj (set_infoIndex idx) ;;;
   ret (Some obj, pres_of_bool ok)).
Proof. destruct w; reflexivity. Qed.

Lemma parseArg_num f inf cur w : parseArg (S f) inf cur (fw_ty w) = parseSimpleArg (fw_ty w).
Proof. destruct inf as [[a b] c]. destruct w; reflexivity. Qed.

Lemma simpleArg_num w v s g pl pre rest post (Q : option N * pres -> pstate -> Prop) :
  Rep (p_tree s) g pl -> g_free g = [] -> N.of_nat (length pl) < InvalidIndex ->
  at_token (p_r s) pre (Grammar.le_bytes (fw_n w) v ++ rest) post -> v < 2 ^ (fw_len w * 8) ->
  (forall t', Rep t' (gnew g) (pl ++ [num_pay (p_handle s) w (lenN pre) v]) ->
     Q (Some (N.of_nat (length pl)), ROk) (with_tree (with_r s (set_offset_raw (p_r s) (lenN pre + fw_len w))) t')) ->
  wp False (parseSimpleArg (fw_ty w)) s Q.
Proof.
  intros H Hfree Hroom Hat Hv K. rewrite simpleArg_num_eq.
  apply wp_bind. eapply (wp_newObj_rep False 0 0 s g pl); [exact H|exact Hfree|exact Hroom|discriminate| |reflexivity|].
  { left. lia. }
  intros t1 H1. unfold offsetM, rq. apply wp_bind, wp_get. scbn.
  apply wp_bind. eapply (wp_wrf_rep False _ _ (ys_off (r_offset (p_r s)))); [exact H1|apply pget_app_last|discriminate|apply st_amlOffset|].
  intros t2 H2. rewrite pupd_app_last in H2. unfold ys_off in H2; cbn [y_op y_info y_th y_name y_off y_pkgEnd y_val] in H2.
  rewrite (at_off _ _ _ _ Hat) in H2.
  unfold curTable. apply wp_bind, wp_get. scbn.
  apply wp_bind. eapply (wp_wrf_rep False _ _ (ys_opcode (fw_op w))); [exact H2|apply pget_app_last|discriminate|apply st_opcode; destruct w; discriminate|].
  intros t3 H3. rewrite pupd_app_last in H3. unfold ys_opcode in H3; cbn [y_op y_info y_th y_name y_off y_pkgEnd y_val] in H3.
  apply wp_bind. apply wp_lex.
  exists v, true, (set_offset_raw (p_r s) (lenN pre + fw_len w)). split.
  { apply (num_roundtrip (fw_n w) v (p_r s) pre (rest ++ post)); [destruct w; cbn; lia|exact Hv|apply at_split; exact Hat]. }
  cbv beta iota.
  assert (Hlf : y_op (mkPay (fw_op w) 0 (p_handle s) name_zero (lenN pre) 0 None) <> opFreed) by (destruct w; discriminate).
  apply wp_bind. eapply (wp_wrf_rep False _ _ (ys_val _)); [exact H3|apply pget_app_last|exact Hlf|apply st_value|].
  intros t4 H4. rewrite pupd_app_last in H4. unfold ys_val in H4; cbn [y_op y_info y_th y_name y_off y_pkgEnd y_val] in H4.
  apply wp_bind. eapply (wp_tableIndex False (fw_op w) true (fw_info w)); [destruct w; reflexivity|].
  apply wp_bind. eapply (wp_wrf_rep False _ _ (ys_info _)); [exact H4|apply pget_app_last|exact Hlf|apply st_infoIndex|].
  intros t5 H5. rewrite pupd_app_last in H5. unfold ys_info in H5; cbn [y_op y_info y_th y_name y_off y_pkgEnd y_val] in H5.
  apply wp_ret. cbn [pres_of_bool]. apply K. exact H5.
Qed.

(** ---- one argument of the loop ---- *)
Lemma parseArgs_go f op flags af cur i : i < argCount af ->
  parseArgs (S f) (op, flags, af) cur i =
  (mlet '(argObj, res) <~ parseArg f (op, flags, af) cur (argType af i) ;;
   (match argObj with Some a => appendM (Some cur) a | None => ret tt end) ;;;
   if pres_eqb res ROk then parseArgs f (op, flags, af) cur (w8 (i + 1)) else ret res).
Proof.
  intros Hi. rewrite parseArgs_S. cbv zeta.
  assert (E0 : argCount af =? 0 = false) by (apply N.eqb_neq; lia). assert (E1 : argCount af <=? i = false) by (apply N.leb_gt; exact Hi).
  rewrite E0, E1. reflexivity.
Qed.

Lemma parseArgs_end f op flags af cur i s (Q : pres -> pstate -> Prop) : argCount af <= i -> Q ROk s ->
  wp False (parseArgs (S f) (op, flags, af) cur i) s Q.
Proof.
  intros Hi K. rewrite parseArgs_S. cbv zeta. destruct (argCount af =? 0); [apply wp_ret; exact K|].
  assert (E1 : argCount af <=? i = true) by (apply N.leb_le; exact Hi). rewrite E1. apply wp_ret. exact K.
Qed.

Lemma args_name f op flags af cur i nm s g pl pre rest post (Q : pres -> pstate -> Prop) :
  Rep (p_tree s) g pl -> g_free g = [] -> N.of_nat (length pl) < InvalidIndex -> cur < N.of_nat (length pl) ->
  i < argCount af -> argType af i = aml_pArgTypeNameString ->
  at_token (p_r s) pre (enc_name nm ++ rest) post -> wf_name nm -> 1 <= name_slice_len nm ->
  (forall t', Rep t' (g_arg1 g cur) (pl ++ [path_pay s (lenN pre) (name_slice_len nm)]) ->
     wp False (parseArgs (S f) (op, flags, af) cur (w8 (i + 1)))
        (with_tree (with_r s (set_offset_raw (p_r s) (lenN pre + lenN (enc_name nm)))) t') Q) ->
  wp False (parseArgs (S (S f)) (op, flags, af) cur i) s Q.
Proof.
  intros H Hfree Hroom Hcur Hi Hty Hat Hwf Hlen K. rewrite parseArgs_go by exact Hi. rewrite Hty, parseArg_NameString.
  apply wp_bind. eapply (simpleArg_name nm s g pl pre rest post); [exact H|exact Hfree|exact Hroom|exact Hat|exact Hwf|exact Hlen|].
  intros t1 H1. cbv beta iota.
  apply wp_bind. eapply (wp_append_new False cur (p_tree s) _ g pl); [exact H|exact H1|exact Hfree|exact Hcur|].
  intros t2 H2. change (pres_eqb ROk ROk) with true. cbv iota. exact (K t2 H2).
Qed.

Lemma args_num f op flags af cur i w v s g pl pre rest post (Q : pres -> pstate -> Prop) :
  Rep (p_tree s) g pl -> g_free g = [] -> N.of_nat (length pl) < InvalidIndex -> cur < N.of_nat (length pl) ->
  i < argCount af -> argType af i = fw_ty w ->
  at_token (p_r s) pre (Grammar.le_bytes (fw_n w) v ++ rest) post -> v < 2 ^ (fw_len w * 8) ->
  (forall t', Rep t' (g_arg1 g cur) (pl ++ [num_pay (p_handle s) w (lenN pre) v]) ->
     wp False (parseArgs (S f) (op, flags, af) cur (w8 (i + 1)))
        (with_tree (with_r s (set_offset_raw (p_r s) (lenN pre + fw_len w))) t') Q) ->
  wp False (parseArgs (S (S f)) (op, flags, af) cur i) s Q.
Proof.
  intros H Hfree Hroom Hcur Hi Hty Hat Hv K. rewrite parseArgs_go by exact Hi. rewrite Hty, parseArg_num.
  apply wp_bind. eapply (simpleArg_num w v s g pl pre rest post); [exact H|exact Hfree|exact Hroom|exact Hat|exact Hv|].
  intros t1 H1. cbv beta iota.
  apply wp_bind. eapply (wp_append_new False cur (p_tree s) _ g pl); [exact H|exact H1|exact Hfree|exact Hcur|].
  intros t2 H2. change (pres_eqb ROk ROk) with true. cbv iota. exact (K t2 H2).
Qed.

(** ---- a run of fixed data arguments ---- *)
Definition fxs : Type := list (fw * N).
Fixpoint fx_pays (hd off : N) (l : fxs) : list pay :=
  match l with [] => [] | (w, v) :: r => num_pay hd w off v :: fx_pays hd (off + fw_len w) r end.
Definition fw_enc (w : fw) (v : N) : list N := match w with W1 => [v] | W2 => Grammar.le_bytes 2 v | W4 => Grammar.le_bytes 4 v end.
Fixpoint enc_fx (l : fxs) : list N :=
  match l with [] => [] | (w, v) :: r => fw_enc w v ++ enc_fx r end.

Lemma fw_enc_le w v : v < 2 ^ (fw_len w * 8) -> fw_enc w v = Grammar.le_bytes (fw_n w) v.
Proof.
  intros Hv. destruct w; try reflexivity. cbn [fw_enc fw_n Grammar.le_bytes]. rewrite land_255, N.mod_small; [reflexivity|exact Hv].
Qed.

Lemma lenN_fw_enc w v : lenN (fw_enc w v) = fw_len w.
Proof. destruct w; reflexivity. Qed.
Definition fx_okb (l : fxs) : bool := forallb (fun '(w, v) => v <? 2 ^ (fw_len w * 8)) l.

Lemma len_le_bytes n v : length (Grammar.le_bytes n v) = n.
Proof. revert v. induction n as [|n IH]; intros v; cbn [Grammar.le_bytes length]; [reflexivity|rewrite IH; reflexivity]. Qed.

Lemma len_fx_pays hd off l : length (fx_pays hd off l) = length l.
Proof. revert off. induction l as [|[w v] r IH]; intros off; cbn [fx_pays length]; [reflexivity|rewrite IH; reflexivity]. Qed.

Lemma state_same s pre tok post : at_token (p_r s) pre tok post ->
  with_tree (with_r s (set_offset_raw (p_r s) (lenN pre + 0))) (p_tree s) = s.
Proof.
  intros Hat. pose proof (at_off _ _ _ _ Hat) as Ho. rewrite N.add_0_r, <- Ho. destruct s as [r t ss ps se a b c d hh tb]. destruct r. reflexivity.
Qed.

Lemma args_fix : forall (l : fxs) f op flags af cur i s g pl pre rest post (Q : pres -> pstate -> Prop),
  Rep (p_tree s) g pl -> g_free g = [] -> N.of_nat (length pl) + N.of_nat (length l) < InvalidIndex -> cur < N.of_nat (length pl) ->
  i + N.of_nat (length l) <= argCount af -> argCount af < 256 ->
  (forall j w v, nth_error l j = Some (w, v) -> argType af (i + N.of_nat j) = fw_ty w) ->
  fx_okb l = true ->
  at_token (p_r s) pre (enc_fx l ++ rest) post ->
  (forall t', Rep t' (g_args g cur (length l)) (pl ++ fx_pays (p_handle s) (lenN pre) l) ->
     wp False (parseArgs (S f) (op, flags, af) cur (i + N.of_nat (length l)))
        (with_tree (with_r s (set_offset_raw (p_r s) (lenN pre + lenN (enc_fx l)))) t') Q) ->
  wp False (parseArgs (length l + S f) (op, flags, af) cur i) s Q.
Proof.
  induction l as [|[w v] r IH]; intros f op flags af cur i s g pl pre rest post Q H Hfree Hroom Hcur Hi Hcnt Hty Hok Hat K.
  - cbn [length Nat.add]. specialize (K (p_tree s)). cbn [length g_args fx_pays enc_fx] in K. rewrite app_nil_r, N.add_0_r in K.
    change (lenN (@nil N)) with 0 in K. rewrite (state_same s pre _ post Hat) in K. apply K. exact H.
  - cbn [length] in *. cbn [fx_okb forallb] in Hok. apply andb_prop in Hok. destruct Hok as [Hv Hok]. apply N.ltb_lt in Hv.
    cbn [enc_fx] in Hat. rewrite <- app_assoc in Hat. rewrite (fw_enc_le w v Hv) in Hat.
    replace (S (length r) + S f)%nat with (S (S (length r + f))) by (clear; lia).
    eapply (args_num _ op flags af cur i w v s g pl pre _ post); [exact H|exact Hfree|clear -Hroom; lia|exact Hcur|clear -Hi; lia| |exact Hat|exact Hv|].
    { rewrite <- (N.add_0_r i). apply (Hty 0%nat w v). reflexivity. }
    intros t1 H1.
    assert (Hw8 : w8 (i + 1) = i + 1) by (unfold w8; apply N.mod_small; change two8 with 256; clear -Hcnt Hi; lia). rewrite Hw8.
    set (s1 := with_tree (with_r s (set_offset_raw (p_r s) (lenN pre + fw_len w))) t1).
    pose proof (at_adv _ pre _ _ post Hat) as Hat1. rewrite lenN_le_bytes in Hat1. fold (fw_len w) in Hat1.
    replace (S (length r + f)) with (length r + S f)%nat by (clear; lia).
    eapply (IH f op flags af cur (i + 1) s1 (g_arg1 g cur) _ (pre ++ Grammar.le_bytes (fw_n w) v) rest post);
      [exact H1|reflexivity|rewrite app_length; cbn [length]; clear -Hroom; lia|rewrite app_length; cbn [length]; clear -Hcur; lia|clear -Hi; lia|exact Hcnt| |exact Hok|exact Hat1|].
    { intros j w' v' Hj. replace (i + 1 + N.of_nat j) with (i + N.of_nat (S j)) by (clear; lia). apply (Hty (S j) w' v'). exact Hj. }
    intros t2 H2.
    assert (El : lenN (pre ++ Grammar.le_bytes (fw_n w) v) = lenN pre + fw_len w) by (rewrite lenN_app, lenN_le_bytes; reflexivity).
    rewrite El in H2 |- *.
    specialize (K t2). cbn [g_args fx_pays enc_fx] in K.
    replace (i + N.of_nat (S (length r))) with (i + 1 + N.of_nat (length r)) in K by (clear; lia).
    rewrite lenN_app, lenN_fw_enc in K. rewrite N.add_assoc in K.
    apply K. rewrite <- app_assoc in H2. cbn [app] in H2.
    rewrite <- g_args_shift. exact H2.
Qed.

(** ---- the block-like named objects ---- *)
Inductive bkind : Type := BDev | BTZ | BProc | BPwr | BMeth.
Definition bk_op (bk : bkind) : N :=
  match bk with BDev => aml_pOpDevice | BTZ => aml_pOpThermalZone | BProc => aml_pOpProcessor | BPwr => aml_pOpPowerRes | BMeth => aml_pOpMethod end.
Definition bk_info (bk : bkind) : N := match bk with BDev => 106 | BTZ => 109 | BProc => 107 | BPwr => 108 | BMeth => 13 end.
Definition bk_af (bk : bkind) : N :=
  match bk with BDev => 67855 | BTZ => 67855 | BProc => 1121104234767 | BPwr => 4395960591 | BMeth => 17107215 end.
Definition bk_ws (bk : bkind) : list fw :=
  match bk with BDev => [] | BTZ => [] | BProc => [W1; W4; W1] | BPwr => [W1; W2] | BMeth => [W1] end.

(** the row of the opcode table ([opcodeTableIndex], [opInfo]: index, flags, argFlags) of a block opcode and the side
    conditions of [next_head], in the order [next_blk] takes them apart; likewise the other [_facts] lemmas *)
Lemma bk_facts bk : valid_opcode (bk_op bk) /\ bk_op bk <> aml_pOpNoop /\ bk_op bk <> opFreed /\ is_prefix_op (bk_op bk) = false /\
  opcodeTableIndex (bk_op bk) true = Some (bk_info bk) /\ opInfo (bk_info bk) = Some (bk_op bk, 33, bk_af bk) /\
  hasFlag 33 aml_pOpFlagDeferParsing = false.
Proof.
  split; [destruct bk; (split; [discriminate|]); eexists; (split; [reflexivity|discriminate])|].
  destruct bk; (repeat split; try discriminate; try reflexivity).
Qed.

Lemma bk_args bk : argCount (bk_af bk) = 3 + N.of_nat (length (bk_ws bk)) /\
  argType (bk_af bk) 0 = aml_pArgTypePkgLen /\ argType (bk_af bk) 1 = aml_pArgTypeNameString /\
  (forall j w, nth_error (bk_ws bk) j = Some w -> argType (bk_af bk) (2 + N.of_nat j) = fw_ty w) /\
  argType (bk_af bk) (2 + N.of_nat (length (bk_ws bk))) = aml_pArgTypeTermList.
Proof.
  destruct bk; (split; [reflexivity|]; split; [reflexivity|]; split; [reflexivity|]; split; [|reflexivity]);
    intros j w Hj; destruct j as [|[|[|j]]]; cbn [nth_error bk_ws] in Hj; try discriminate; try (inversion Hj; reflexivity); destruct j; discriminate.
Qed.

Lemma lenN_enc_pkglen' k v : pkglen_admissible k v -> lenN (enc_pkglen k v) = k.
Proof. intros [(-> & _)|[(-> & _)|[(-> & _)|(-> & _)]]]; reflexivity. Qed.

Lemma at_pkg r pre a b post e : at_token r pre (a ++ b) post -> lenN pre + lenN a <= e -> e <= r_len r ->
  at_token (set_pkgEnd_raw r e) pre a (b ++ post).
Proof.
  intros [D O E W] He Hl. constructor; cbn [r_data r_offset r_pkgEnd set_pkgEnd_raw].
  - rewrite D, <- app_assoc. reflexivity.
  - exact O.
  - exact He.
  - destruct W as (W1 & W2 & W3 & W4). unfold reader_wf. cbn [r_data r_len r_pkgEnd set_pkgEnd_raw]. repeat split; auto.
Qed.

Definition blk_pays' (s : pstate) (bk : bkind) (off k : N) (l : fxs) : list pay :=
  let lo := lenN (enc_op (bk_op bk)) in
  [mkPay (bk_op bk) (bk_info bk) (p_handle s) name_zero off 0 None; path_pay s (off + lo + k) 4] ++
  fx_pays (p_handle s) (off + lo + k + 4) l ++
  [mkPay aml_pOpIntScopeBlock 113 (p_handle s) name_zero (off + lo + k + 4 + lenN (enc_fx l)) 0 None].

Definition after_blk (s : pstate) (m off' e : N) (t' : T) : pstate :=
  with_tree
    (with_scopeStack
       (with_pkgEndStack (with_r s (set_pkgEnd_raw (set_offset_raw (p_r s) off') e)) (e :: p_pkgEndStack s))
       (N.of_nat (length (t_pool (p_tree s))) + m :: p_scopeStack s))
    t'.

Lemma nth_error_fst (l : fxs) j w v : nth_error l j = Some (w, v) -> nth_error (map fst l) j = Some w.
Proof. intros Hj. rewrite nth_error_map, Hj. reflexivity. Qed.

Lemma next_blk f bk s g pl pre k v seg l rest post sc scs a :
  let lo := lenN (enc_op (bk_op bk)) in
  Rep (p_tree s) g pl -> g_free g = [] -> N.of_nat (length pl) + 2 + N.of_nat (length l) < InvalidIndex ->
  at_token (p_r s) pre (enc_op (bk_op bk) ++ enc_pkglen k v ++ seg_bytes seg ++ enc_fx l ++ rest) post ->
  map fst l = bk_ws bk -> fx_okb l = true ->
  pkglen_admissible k v -> 4 + k + lenN (enc_fx l) <= v -> lenN pre + lo + v <= r_len (p_r s) ->
  lead_okb (seg_lead seg) = true ->
  p_scopeStack s = sc :: scs -> pget pl sc = Some a -> y_op a <> opFreed -> p_allBlocks s = false ->
  wp False (parseNextObject (S (S (S (S (S (length l + S (S f)))))))) s (fun res s' => res = ROk /\ exists t',
    s' = after_blk s (2 + N.of_nat (length l)) (lenN pre + lo + k + 4 + lenN (enc_fx l)) (lenN pre + lo + v) t' /\
    Rep t' (g_args (g_head g sc) (N.of_nat (length pl)) (2 + length l)) (pl ++ blk_pays' s bk (lenN pre) k l)).
Proof.
  intros lo H Hfree Hroom Hat Hws Hfx Hadm Hv4 Hend Hlead Est Hsc Hlsc Hab.
  destruct (bk_facts bk) as (Hvalid & Hnoop & Hnf & Hnp & Hidx & Hinfo & Hdefer).
  destruct (bk_args bk) as (Hcnt & Ht0 & Ht1 & Htj & Htl).
  assert (Hlen3 : (length (bk_ws bk) <= 3)%nat) by (destruct bk; cbn; clear; lia).
  rewrite <- Hws, map_length in Hcnt, Htl, Hlen3.
  pose proof (rep_len_g _ _ _ H) as Hlg. pose proof (rep_len_pool _ _ _ H) as Hlp.
  assert (Hsclt : sc < N.of_nat (length pl)) by (eapply pget_lt; eauto).
  set (n := N.of_nat (length pl)) in *. set (af := bk_af bk) in *. set (op := bk_op bk) in *.
  eapply (next_head _ op (bk_info bk) s g pl pre _ post sc scs a);
    [exact H|exact Hfree|clear -Hroom; lia|exact Hat|exact Hvalid|exact Hnoop|exact Hnf|exact Hidx|exact Est|exact Hsc|exact Hlsc|].
  intros t1 H1. fold lo.
  set (a1 := mkPay op (bk_info bk) (p_handle s) name_zero (lenN pre) 0 None) in *.
  set (pl1 := pl ++ [a1]) in *.
  assert (Hl1 : length pl1 = S (length pl)) by (unfold pl1; rewrite app_length; cbn [length]; clear; lia).
  assert (Hn : pget pl1 n = Some a1) by apply pget_app_last.
  eapply (objargs_other _ _ a1 (op, 33, af) _ _ pl1); [exact H1|exact Hn|exact Hnf|exact Hnp|exact Hinfo|].
  (* argument 0: the PkgLength *)
  rewrite parseArgs_go by (clear -Hcnt; lia). rewrite Ht0.
  pose proof (at_adv (p_r s) pre (enc_op op) _ post Hat) as Hat1. fold lo in Hat1.
  apply wp_bind.
  eapply (arg_pkglen _ op 33 af _ _ (pre ++ enc_op op) k v (seg_bytes seg ++ enc_fx l ++ rest) post); [exact Hat1|exact Hadm| |exact Hab|exact Hdefer|].
  { rewrite lenN_app. fold lo. exact Hend. }
  cbv beta iota. apply wp_bind. apply wp_ret. change (pres_eqb ROk ROk) with true. cbv iota. change (w8 (0 + 1)) with 1.
  rewrite lenN_app. fold lo. set (e := lenN pre + lo + v).
  (* argument 1: the name *)
  destruct (at_token_facts _ _ _ _ Hat) as (Ooff & Eend & Wb & Wc).
  pose proof (lenN_enc_pkglen' k v Hadm) as Hlk.
  pose proof (at_adv _ (pre ++ enc_op op) (enc_pkglen k v) (seg_bytes seg ++ enc_fx l ++ rest) post Hat1) as A.
  rewrite Hlk, lenN_app in A. fold lo in A.
  set (pre2 := (pre ++ enc_op op) ++ enc_pkglen k v) in *.
  assert (Hlpre2 : lenN pre2 = lenN pre + lo + k) by (unfold pre2; rewrite !lenN_app, Hlk; reflexivity).
  assert (Hat2 : at_token (set_pkgEnd_raw (set_offset_raw (p_r s) (lenN pre + lo + k)) e) pre2 (enc_name (seg_name seg) ++ enc_fx l) (rest ++ post)).
  { rewrite enc_seg_name. replace (seg_bytes seg ++ enc_fx l ++ rest) with ((seg_bytes seg ++ enc_fx l) ++ rest) in A by (rewrite <- app_assoc; reflexivity).
    apply at_pkg; [exact A| |cbn [r_len set_offset_raw]; unfold e; clear -Hend; lia].
    rewrite Hlpre2, lenN_app. change (lenN (seg_bytes seg)) with 4. unfold e. clear -Hv4; lia. }
  eapply (args_name _ op 33 af n 1 (seg_name seg) _ (g_head g sc) pl1 pre2 (enc_fx l) (rest ++ post));
    [exact H1|apply free_g_head|clear -Hl1 Hroom; lia|clear -Hl1; lia|clear -Hcnt; lia|exact Ht1|exact Hat2|apply wf_seg_name; exact Hlead|rewrite slice_seg_name; clear; lia|].
  intros t2 H2. change (w8 (1 + 1)) with 2.
  rewrite ?slice_seg_name, ?enc_seg_name, ?Hlpre2 in H2. rewrite ?slice_seg_name, ?enc_seg_name, ?Hlpre2. change (lenN (seg_bytes seg)) with 4.
  (* the fixed data arguments *)
  pose proof (at_adv _ pre2 (enc_name (seg_name seg)) (enc_fx l) (rest ++ post) Hat2) as A3.
  rewrite enc_seg_name, Hlpre2 in A3. change (lenN (seg_bytes seg)) with 4 in A3.
  set (pl2 := pl1 ++ [path_pay _ (lenN pre + lo + k) 4]) in *.
  assert (Hl2 : length pl2 = S (S (length pl))) by (unfold pl2; rewrite app_length; cbn [length]; clear -Hl1; lia).
  replace (S (length l + S (S f))) with (length l + S (S (S f)))%nat by (clear; lia).
  eapply (args_fix l _ op 33 af n 2 _ (g_arg1 (g_head g sc) n) pl2 (pre2 ++ seg_bytes seg) [] (rest ++ post));
    [exact H2|reflexivity|clear -Hl2 Hroom; lia|clear -Hl2; lia|clear -Hcnt; lia|clear -Hlen3 Hcnt; lia| |exact Hfx|rewrite app_nil_r; exact A3|].
  { intros j w v' Hj. apply Htj. rewrite <- Hws. eapply nth_error_fst. exact Hj. }
  intros t3 H3.
  assert (Hlp3 : lenN (pre2 ++ seg_bytes seg) = lenN pre + lo + k + 4) by (rewrite lenN_app, Hlpre2; reflexivity).
  rewrite Hlp3 in H3 |- *.
  set (pl3 := pl2 ++ fx_pays _ (lenN pre + lo + k + 4) l) in *.
  assert (Hl3 : length pl3 = (S (S (length pl)) + length l)%nat) by (unfold pl3; rewrite app_length, len_fx_pays; clear -Hl2; lia).
  (* the ScopeBlock *)
  rewrite parseArgs_go by (clear -Hcnt; lia). rewrite Htl.
  apply wp_bind.
  eapply (arg_termlist _ _ _ _ _ pl3); [exact H3|apply free_g_args; reflexivity|clear -Hl3 Hroom; lia|exact Hab|].
  intros t4 H4. cbv beta iota.
  apply wp_bind. eapply (wp_append_new False n _ _ _ pl3); [exact H3|exact H4|apply free_g_args; reflexivity|clear -Hl3; lia|].
  intros t5 H5. change (pres_eqb RShort ROk) with false. cbv iota. apply wp_ret.
  split; [reflexivity|]. exists t5. split.
  - unfold after_blk. rewrite <- Hlp. replace (N.of_nat (length pl) + (2 + N.of_nat (length l))) with (N.of_nat (length pl3)) by (clear -Hl3; lia). reflexivity.
  - rewrite g_args_shift in H5. change (g_arg1 (g_arg1 (g_args (g_head g sc) n (length l)) n) n) with (g_args (g_head g sc) n (2 + length l)) in H5.
    unfold blk_pays'. fold lo. unfold pl3, pl2, pl1 in H5. rewrite <- !app_assoc in H5. cbn [app] in H5 |- *. exact H5.
Qed.

(** ---- the leaf named objects: Mutex, Event, OperationRegion ---- *)
Inductive lkind : Type := LMutex | LEvent | LOpReg | LName.
Definition lk_op (lk : lkind) : N := match lk with LMutex => aml_pOpMutex | LEvent => aml_pOpEvent | LOpReg => aml_pOpOpRegion | LName => aml_pOpName end.
Definition lk_info (lk : lkind) : N := match lk with LMutex => 84 | LEvent => 85 | LOpReg => 104 | LName => 3 end.
Definition lk_af (lk : lkind) : N := match lk with LMutex => 1289 | LEvent => 9 | LOpReg => 33686793 | LName => 3081 end.
Definition lk_ws (lk : lkind) : list fw := match lk with LMutex => [W1] | LEvent => [] | LOpReg => [W1] | LName => [] end.
(** number of TermArg arguments, parsed as the next objects and attached by connectNamedObjArgs *)
Definition lk_nt (lk : lkind) : nat := match lk with LMutex => 0 | LEvent => 0 | LOpReg => 2 | LName => 1 end.

Lemma lk_facts lk : valid_opcode (lk_op lk) /\ lk_op lk <> aml_pOpNoop /\ lk_op lk <> opFreed /\ is_prefix_op (lk_op lk) = false /\
  opcodeTableIndex (lk_op lk) true = Some (lk_info lk) /\ opInfo (lk_info lk) = Some (lk_op lk, 1, lk_af lk).
Proof.
  split; [destruct lk; (split; [discriminate|]); eexists; (split; [reflexivity|discriminate])|].
  destruct lk; (repeat split; try discriminate; try reflexivity).
Qed.

Lemma lk_args lk : argCount (lk_af lk) = 1 + N.of_nat (length (lk_ws lk)) + N.of_nat (lk_nt lk) /\
  argType (lk_af lk) 0 = aml_pArgTypeNameString /\
  (forall j w, nth_error (lk_ws lk) j = Some w -> argType (lk_af lk) (1 + N.of_nat j) = fw_ty w) /\
  (lk_nt lk <> O -> argType (lk_af lk) (1 + N.of_nat (length (lk_ws lk))) = aml_pArgTypeTermArg \/
                    argType (lk_af lk) (1 + N.of_nat (length (lk_ws lk))) = aml_pArgTypeDataRefObj).
Proof.
  destruct lk; (split; [reflexivity|]; split; [reflexivity|]; split; [|cbn [lk_nt]; intros Hn; try (exfalso; apply Hn; reflexivity); first [left; reflexivity|right; reflexivity]]);
    intros j w Hj; destruct j as [|[|j]]; cbn [nth_error lk_ws] in Hj; try discriminate; try (inversion Hj; reflexivity); destruct j; discriminate.
Qed.

Lemma parseArg_TermArg f inf cur s : p_allBlocks s = false ->
  parseArg (S f) inf cur aml_pArgTypeTermArg s = Ok ((None, RShort), s).
Proof.
  destruct inf as [[a b] c]. intros E.
  change (parseArg (S f) (a, b, c) cur aml_pArgTypeTermArg) with
    (mlet allBlocks <~ get p_allBlocks ;; if allBlocks then parseStrictTermArg f cur else ret (None, RShort)).
  unfold bindM, get. rewrite E. reflexivity.
Qed.

Definition leaf_pays' (s : pstate) (lk : lkind) (off : N) (l : fxs) : list pay :=
  let lo := lenN (enc_op (lk_op lk)) in
  [mkPay (lk_op lk) (lk_info lk) (p_handle s) name_zero off 0 None; path_pay s (off + lo) 4] ++ fx_pays (p_handle s) (off + lo + 4) l.

Lemma next_leaf f lk s g pl pre seg l rest post sc scs a :
  let lo := lenN (enc_op (lk_op lk)) in
  Rep (p_tree s) g pl -> g_free g = [] -> N.of_nat (length pl) + 2 + N.of_nat (length l) < InvalidIndex ->
  at_token (p_r s) pre (enc_op (lk_op lk) ++ seg_bytes seg ++ enc_fx l ++ rest) post ->
  map fst l = lk_ws lk -> fx_okb l = true ->
  lead_okb (seg_lead seg) = true ->
  p_scopeStack s = sc :: scs -> pget pl sc = Some a -> y_op a <> opFreed -> p_allBlocks s = false ->
  wp False (parseNextObject (S (S (S (S (length l + S (S f))))))) s (fun res s' => res = ROk /\ exists t',
    s' = with_tree (with_r s (set_offset_raw (p_r s) (lenN pre + lo + 4 + lenN (enc_fx l)))) t' /\
    Rep t' (g_args (g_head g sc) (N.of_nat (length pl)) (1 + length l)) (pl ++ leaf_pays' s lk (lenN pre) l)).
Proof.
  intros lo H Hfree Hroom Hat Hws Hfx Hlead Est Hsc Hlsc Hab.
  destruct (lk_facts lk) as (Hvalid & Hnoop & Hnf & Hnp & Hidx & Hinfo).
  destruct (lk_args lk) as (Hcnt & Ht0 & Htj & Htt).
  assert (Hlen3 : (length (lk_ws lk) <= 1)%nat) by (destruct lk; cbn; clear; lia).
  assert (Hnt2 : (lk_nt lk <= 2)%nat) by (destruct lk; cbn; clear; lia).
  rewrite <- Hws, map_length in Hcnt, Htt, Hlen3.
  pose proof (rep_len_g _ _ _ H) as Hlg. pose proof (rep_len_pool _ _ _ H) as Hlp.
  assert (Hsclt : sc < N.of_nat (length pl)) by (eapply pget_lt; eauto).
  set (n := N.of_nat (length pl)) in *. set (af := lk_af lk) in *. set (op := lk_op lk) in *.
  eapply (next_head _ op (lk_info lk) s g pl pre _ post sc scs a);
    [exact H|exact Hfree|clear -Hroom; lia|exact Hat|exact Hvalid|exact Hnoop|exact Hnf|exact Hidx|exact Est|exact Hsc|exact Hlsc|].
  intros t1 H1. fold lo.
  set (a1 := mkPay op (lk_info lk) (p_handle s) name_zero (lenN pre) 0 None) in *.
  set (pl1 := pl ++ [a1]) in *.
  assert (Hl1 : length pl1 = S (length pl)) by (unfold pl1; rewrite app_length; cbn [length]; clear; lia).
  assert (Hn : pget pl1 n = Some a1) by apply pget_app_last.
  eapply (objargs_other _ _ a1 (op, 1, af) _ _ pl1); [exact H1|exact Hn|exact Hnf|exact Hnp|exact Hinfo|].
  (* argument 0: the name *)
  pose proof (at_adv (p_r s) pre (enc_op op) _ post Hat) as Hat1. fold lo in Hat1.
  set (pre2 := pre ++ enc_op op) in *.
  assert (Hlpre2 : lenN pre2 = lenN pre + lo) by (unfold pre2; rewrite lenN_app; reflexivity).
  assert (Hat2 : at_token (set_offset_raw (p_r s) (lenN pre + lo)) pre2 (enc_name (seg_name seg) ++ enc_fx l ++ rest) post).
  { rewrite enc_seg_name. exact Hat1. }
  eapply (args_name _ op 1 af n 0 (seg_name seg) _ (g_head g sc) pl1 pre2 (enc_fx l ++ rest) post);
    [exact H1|apply free_g_head|clear -Hl1 Hroom; lia|clear -Hl1; lia|clear -Hcnt; lia|exact Ht0|exact Hat2|apply wf_seg_name; exact Hlead|rewrite slice_seg_name; clear; lia|].
  intros t2 H2. change (w8 (0 + 1)) with 1.
  rewrite ?slice_seg_name, ?enc_seg_name, ?Hlpre2 in H2. rewrite ?slice_seg_name, ?enc_seg_name, ?Hlpre2. change (lenN (seg_bytes seg)) with 4.
  (* the fixed data arguments *)
  pose proof (at_adv _ pre2 (enc_name (seg_name seg)) (enc_fx l ++ rest) post Hat2) as A3.
  rewrite enc_seg_name, Hlpre2 in A3. change (lenN (seg_bytes seg)) with 4 in A3.
  set (pl2 := pl1 ++ [path_pay _ (lenN pre + lo) 4]) in *.
  assert (Hl2 : length pl2 = S (S (length pl))) by (unfold pl2; rewrite app_length; cbn [length]; clear -Hl1; lia).
  replace (S (length l + S (S f))) with (length l + S (S (S f)))%nat by (clear; lia).
  eapply (args_fix l _ op 1 af n 1 _ (g_arg1 (g_head g sc) n) pl2 (pre2 ++ seg_bytes seg) rest post);
    [exact H2|reflexivity|clear -Hl2 Hroom; lia|clear -Hl2; lia|clear -Hcnt; lia|clear -Hnt2 Hlen3 Hcnt; lia| |exact Hfx|exact A3|].
  { intros j w v' Hj. apply Htj. rewrite <- Hws. eapply nth_error_fst. exact Hj. }
  intros t3 H3.
  assert (Hlp3 : lenN (pre2 ++ seg_bytes seg) = lenN pre + lo + 4) by (rewrite lenN_app, Hlpre2; reflexivity).
  rewrite Hlp3 in H3 |- *.
  (* the end of the fixed arguments: either all arguments are read, or a TermArg is left for the later pass *)
  assert (Hfin : forall t', Rep t' (g_args (g_arg1 (g_head g sc) n) n (length l)) (pl2 ++ fx_pays (p_handle s) (lenN pre + lo + 4) l) ->
            Rep t' (g_args (g_head g sc) n (1 + length l)) (pl ++ leaf_pays' s lk (lenN pre) l)).
  { intros t' H'. rewrite g_args_shift in H'. change (g_arg1 (g_args (g_head g sc) n (length l)) n) with (g_args (g_head g sc) n (1 + length l)) in H'.
    unfold leaf_pays'. fold lo. unfold pl2, pl1 in H'. rewrite <- !app_assoc in H'. cbn [app] in H' |- *. exact H'. }
  destruct (Nat.eq_dec (lk_nt lk) 0) as [Hz|Hnz].
  - apply parseArgs_end; [clear -Hz Hcnt; lia|]. split; [reflexivity|]. exists t3. split; [reflexivity|apply Hfin; exact H3].
  - rewrite parseArgs_go by (clear -Hnz Hcnt; lia). destruct (Htt Hnz) as [Ety|Ety]; rewrite Ety; unfold wp, bindM;
      [rewrite parseArg_TermArg by exact Hab|rewrite parseArg_DataRef by exact Hab];
      cbv beta iota; unfold ret; (split; [reflexivity|]); exists t3; (split; [reflexivity|apply Hfin; exact H3]).
Qed.

(** ---- a string object ---- *)
Lemma objargs_str f cur a s g pl pre b rest post (Q : pres -> pstate -> Prop) :
  Rep (p_tree s) g pl -> pget pl cur = Some a -> y_op a = aml_pOpStringPrefix ->
  at_token (p_r s) pre ((b ++ [0]) ++ rest) post -> Forall ascii_char b ->
  (forall t', Rep t' g (pupd pl cur (ys_val (Some (VBytes (cur_tbl s) (mkSlice (Some (lenN pre)) (lenN b)))))) ->
      Q ROk (with_tree (with_r s (set_offset_raw (p_r s) (lenN pre + lenN b + 1))) t')) ->
  wp False (parseObjectArgs (S f) cur) s Q.
Proof.
  intros H Ha Hop Hat Hasc K. assert (Hl : y_op a <> opFreed) by (rewrite Hop; discriminate). cbn [parseObjectArgs].
  apply wp_bind. eapply wp_rdf_rep; [exact H|exact Ha|exact Hl|]. intros o Ho _ _ _. rewrite (pay_op _ _ Ho), Hop.
  unfold curTable. apply wp_bind, wp_get.
  change (aml_pOpStringPrefix =? aml_pOpBytePrefix) with false. change (aml_pOpStringPrefix =? aml_pOpWordPrefix) with false.
  change (aml_pOpStringPrefix =? aml_pOpDwordPrefix) with false. change (aml_pOpStringPrefix =? aml_pOpQwordPrefix) with false.
  change (aml_pOpStringPrefix =? aml_pOpStringPrefix) with true. cbv iota.
  apply wp_bind. apply wp_bind. apply wp_lex.
  exists (mkSlice (Some (lenN pre)) (lenN b)), true, (set_offset_raw (p_r s) (lenN pre + lenN b + 1)). split.
  { apply (string_roundtrip b (p_r s) pre (rest ++ post) Hasc). apply at_split. exact Hat. }
  cbv beta iota. apply wp_bind. unfold bytesValue. cbn [s_ptr].
  eapply (wp_wrf_rep False _ _ (ys_val _)); [exact H|exact Ha|exact Hl|apply st_value|].
  intros t' H'. apply wp_ret. cbn [pres_of_bool]. apply wp_ret. apply K. exact H'.
Qed.

Definition str_pay' (s : pstate) (off : N) (b : list N) : pay :=
  mkPay aml_pOpStringPrefix 7 (p_handle s) name_zero off 0 (Some (VBytes (cur_tbl s) (mkSlice (Some (off + 1)) (lenN b)))).

Lemma next_string f s g pl pre b rest post sc scs a :
  Rep (p_tree s) g pl -> g_free g = [] -> N.of_nat (length pl) < InvalidIndex ->
  at_token (p_r s) pre (aml_pOpStringPrefix :: (b ++ [0]) ++ rest) post -> Forall ascii_char b ->
  p_scopeStack s = sc :: scs -> pget pl sc = Some a -> y_op a <> opFreed ->
  wp False (parseNextObject (S (S (S f)))) s (fun res s' => res = ROk /\ exists t',
    s' = with_tree (with_r s (set_offset_raw (p_r s) (lenN pre + 1 + lenN b + 1))) t' /\
    Rep t' (g_head g sc) (pl ++ [str_pay' s (lenN pre) b])).
Proof.
  intros H Hfree Hroom Hat Hasc Est Hsc Hlsc.
  eapply (next_head _ aml_pOpStringPrefix 7 s g pl pre _ post sc scs a);
    [exact H|exact Hfree|exact Hroom|exact Hat| |discriminate|discriminate|reflexivity|exact Est|exact Hsc|exact Hlsc|].
  { split; [cbv; discriminate|]. exists 7. split; [reflexivity|discriminate]. }
  intros t1 H1. change (lenN (enc_op aml_pOpStringPrefix)) with 1.
  set (s1 := with_tree (with_r s (set_offset_raw (p_r s) (lenN pre + 1))) t1).
  set (a1 := mkPay aml_pOpStringPrefix 7 (p_handle s) name_zero (lenN pre) 0 None) in *.
  assert (Hn : pget (pl ++ [a1]) (N.of_nat (length pl)) = Some a1) by apply pget_app_last.
  assert (Hat1 : at_token (p_r s1) (pre ++ [aml_pOpStringPrefix]) ((b ++ [0]) ++ rest) post).
  { apply (at_adv (p_r s) pre [aml_pOpStringPrefix] _ post). exact Hat. }
  eapply (objargs_str _ _ a1 s1 _ _ _ b rest post); [exact H1|exact Hn|reflexivity|exact Hat1|exact Hasc|].
  intros t2 H2. split; [reflexivity|]. exists t2. split.
  - unfold s1. rewrite lenN_app. reflexivity.
  - rewrite pupd_app_last in H2. unfold str_pay'. rewrite lenN_app in H2. exact H2.
Qed.

(** ---- the header of a Package: opcode, PkgLength, number of elements, ScopeBlock of the elements ---- *)
Lemma pkg_facts : valid_opcode aml_pOpPackage /\ aml_pOpPackage <> aml_pOpNoop /\ aml_pOpPackage <> opFreed /\
  is_prefix_op aml_pOpPackage = false /\ opcodeTableIndex aml_pOpPackage true = Some 11 /\
  opInfo 11 = Some (aml_pOpPackage, 8, 66831) /\ hasFlag 8 aml_pOpFlagDeferParsing = false.
Proof. repeat split; try discriminate; try reflexivity. exists 11. split; [reflexivity|discriminate]. Qed.

Definition pkg_pays' (s : pstate) (off k n : N) : list pay :=
  [mkPay aml_pOpPackage 11 (p_handle s) name_zero off 0 None; num_pay (p_handle s) W1 (off + 1 + k) n;
   mkPay aml_pOpIntScopeBlock 113 (p_handle s) name_zero (off + 1 + k + 1) 0 None].

Lemma next_pkg f s g pl pre k v n rest post sc scs a :
  Rep (p_tree s) g pl -> g_free g = [] -> N.of_nat (length pl) + 3 < InvalidIndex ->
  at_token (p_r s) pre (enc_op aml_pOpPackage ++ enc_pkglen k v ++ enc_fx [(W1, n)] ++ rest) post ->
  n < 256 -> pkglen_admissible k v -> 1 + k <= v -> lenN pre + 1 + v <= r_len (p_r s) ->
  p_scopeStack s = sc :: scs -> pget pl sc = Some a -> y_op a <> opFreed -> p_allBlocks s = false ->
  wp False (parseNextObject (S (S (S (S (S (S (S f)))))))) s (fun res s' => res = ROk /\ exists t',
    s' = after_blk s 2 (lenN pre + 1 + k + 1) (lenN pre + 1 + v) t' /\
    Rep t' (g_args (g_head g sc) (N.of_nat (length pl)) 2) (pl ++ pkg_pays' s (lenN pre) k n)).
Proof.
  intros H Hfree Hroom Hat Hn Hadm Hv4 Hend Est Hsc Hlsc Hab.
  destruct pkg_facts as (Hvalid & Hnoop & Hnf & Hnp & Hidx & Hinfo & Hdefer).
  pose proof (rep_len_g _ _ _ H) as Hlg. pose proof (rep_len_pool _ _ _ H) as Hlp.
  assert (Hsclt : sc < N.of_nat (length pl)) by (eapply pget_lt; eauto).
  set (n0 := N.of_nat (length pl)) in *. change (lenN (enc_op aml_pOpPackage)) with 1 in *.
  eapply (next_head _ aml_pOpPackage 11 s g pl pre _ post sc scs a);
    [exact H|exact Hfree|clear -Hroom; lia|exact Hat|exact Hvalid|exact Hnoop|exact Hnf|exact Hidx|exact Est|exact Hsc|exact Hlsc|].
  intros t1 H1. change (lenN (enc_op aml_pOpPackage)) with 1.
  set (a1 := mkPay aml_pOpPackage 11 (p_handle s) name_zero (lenN pre) 0 None) in *.
  set (pl1 := pl ++ [a1]) in *.
  assert (Hl1 : length pl1 = S (length pl)) by (unfold pl1; rewrite app_length; cbn [length]; clear; lia).
  assert (Hn0 : pget pl1 n0 = Some a1) by apply pget_app_last.
  eapply (objargs_other _ _ a1 (aml_pOpPackage, 8, 66831) _ _ pl1); [exact H1|exact Hn0|exact Hnf|exact Hnp|exact Hinfo|].
  (* argument 0: the PkgLength *)
  rewrite parseArgs_go by (change (argCount 66831) with 3; clear; lia). change (argType 66831 0) with aml_pArgTypePkgLen.
  pose proof (at_adv (p_r s) pre (enc_op aml_pOpPackage) _ post Hat) as Hat1. change (lenN (enc_op aml_pOpPackage)) with 1 in Hat1.
  apply wp_bind.
  eapply (arg_pkglen _ aml_pOpPackage 8 66831 _ _ (pre ++ enc_op aml_pOpPackage) k v (enc_fx [(W1, n)] ++ rest) post); [exact Hat1|exact Hadm| |exact Hab|exact Hdefer|].
  { rewrite lenN_app. change (lenN (enc_op aml_pOpPackage)) with 1. exact Hend. }
  cbv beta iota. apply wp_bind. apply wp_ret. change (pres_eqb ROk ROk) with true. cbv iota. change (w8 (0 + 1)) with 1.
  rewrite lenN_app. change (lenN (enc_op aml_pOpPackage)) with 1. set (e := lenN pre + 1 + v).
  (* argument 1: the number of elements *)
  destruct (at_token_facts _ _ _ _ Hat) as (Ooff & Eend & Wb & Wc).
  pose proof (lenN_enc_pkglen' k v Hadm) as Hlk.
  pose proof (at_adv _ (pre ++ enc_op aml_pOpPackage) (enc_pkglen k v) (enc_fx [(W1, n)] ++ rest) post Hat1) as A.
  rewrite Hlk, lenN_app in A. change (lenN (enc_op aml_pOpPackage)) with 1 in A.
  set (pre2 := (pre ++ enc_op aml_pOpPackage) ++ enc_pkglen k v) in *.
  assert (Hlpre2 : lenN pre2 = lenN pre + 1 + k) by (unfold pre2; rewrite !lenN_app, Hlk; reflexivity).
  assert (Hat2 : at_token (set_pkgEnd_raw (set_offset_raw (p_r s) (lenN pre + 1 + k)) e) pre2 (enc_fx [(W1, n)] ++ []) (rest ++ post)).
  { rewrite app_nil_r. apply at_pkg; [exact A| |cbn [r_len set_offset_raw]; unfold e; clear -Hend; lia].
    rewrite Hlpre2. change (lenN (enc_fx [(W1, n)])) with 1. unfold e. clear -Hv4; lia. }
  eapply (args_fix [(W1, n)] _ aml_pOpPackage 8 66831 n0 1 _ (g_head g sc) pl1 pre2 [] (rest ++ post));
    [exact H1|apply free_g_head|cbn [length]; clear -Hl1 Hroom; lia|clear -Hl1; lia|change (argCount 66831) with 3; cbn [length]; clear; lia|change (argCount 66831) with 3; clear; lia| | |exact Hat2|].
  { intros j w v' Hj. destruct j as [|[|j]]; cbn in Hj; inversion Hj. reflexivity. }
  { cbn [fx_okb forallb]. assert (E : (n <? 2 ^ (fw_len W1 * 8)) = true) by (apply N.ltb_lt; exact Hn). rewrite E. reflexivity. }
  intros t3 H3. cbn [length] in H3 |- *. change (1 + N.of_nat 1) with 2.
  change (lenN (enc_fx [(W1, n)])) with 1. rewrite Hlpre2 in H3 |- *.
  set (pl3 := pl1 ++ fx_pays (p_handle _) (lenN pre + 1 + k) [(W1, n)]) in *.
  assert (Hl3 : length pl3 = S (S (length pl))) by (unfold pl3; rewrite app_length; cbn [fx_pays length]; clear -Hl1; lia).
  (* the ScopeBlock *)
  rewrite parseArgs_go by (change (argCount 66831) with 3; clear; lia). change (argType 66831 2) with aml_pArgTypeTermList.
  apply wp_bind.
  eapply (arg_termlist _ _ _ _ _ pl3); [exact H3|reflexivity|clear -Hl3 Hroom; lia|exact Hab|].
  intros t4 H4. cbv beta iota.
  apply wp_bind. eapply (wp_append_new False n0 _ _ _ pl3); [exact H3|exact H4|reflexivity|clear -Hl3; lia|].
  intros t5 H5. change (pres_eqb RShort ROk) with false. cbv iota. apply wp_ret.
  split; [reflexivity|]. exists t5. split.
  - unfold after_blk. rewrite <- Hlp. replace (N.of_nat (length pl) + 2) with (N.of_nat (length pl3)) by (clear -Hl3; lia). reflexivity.
  - change (g_arg1 (g_args (g_head g sc) n0 1) n0) with (g_args (g_head g sc) n0 2) in H5.
    unfold pkg_pays'. unfold pl3, pl1 in H5. rewrite <- !app_assoc in H5. cbn [app fx_pays] in H5 |- *. exact H5.
Qed.
