(** C11 (fragment F9): the items of F8 and statements [op(c1, ..., cn)] (Return / Sleep / Stall / LNot / LAnd /
    LOr / LEqual / LGreater / LLess with constant operands, Break / Continue / BreakPoint).
    Items, their encoding, the tree the first pass builds for them ([lay1]), the tree after connectNamedObjArgs
    ([lay2]) and the tree after resolveMethodCalls ([lay5]).  The items of F1 .. F8 (ParserFragF1.v, the type
    over which the Scope and multi-table layers are stated) are these without [IStmt]; the proofs about the passes are
    done here, for all items, and read there through the embedding [ParserFragF1.emb]. *)
From Coq Require Import NArith ZArith Arith List Bool Lia.
From Coq Require Import ZifyBool ZifyN ZifyNat.
From FF Require Import Lib.Word Gen.Consts_device_acpi_aml Gen.Consts_aml_tree Aml.Stream Aml.Lex Aml.LexProofs
  Aml.Tree Aml.TreeSpec Aml.TreeProofs Aml.Parser Aml.Grammar Aml.LexRoundtrip
  Aml.ParserTotalBase Aml.ParserFragBase Aml.ParserFragFirst Aml.ParserFragF0 Aml.ParserFragF0Conn Aml.ParserFragWalk Aml.ParserFragRose
  Aml.ParserFragDev Aml.ParserFragArgs.
Import ListNotations.
Local Open Scope N_scope.

(** a constant TermArg argument of a leaf named object: an integer constant or a string *)
Inductive targ : Type := TInt (d : decl) | TStr (b : list N).

(** an element of a package: a constant or a package of such elements *)
Inductive pel : Type := PLeaf (a : targ) | PSub (k n : N) (es : list pel).

(** statement operators whose operands are all TermArgs (the first pass leaves every operand to the object list);
    [sk_info] and [sk_af] are the row index and the argFlags of the operator in aml_opcodeTable ([Lex.opInfo]), checked by [sk_row] *)
Inductive skind : Type := SRet | SSleep | SStall | SLNot | SLAnd | SLOr | SLEq | SLGt | SLLt | SBreak | SCont | SBrkPt.
Definition sk_op (sk : skind) : N :=
  match sk with SRet => 0xa4 | SSleep => 0x121 | SStall => 0x120 | SLNot => 0x92 | SLAnd => 0x90 | SLOr => 0x91
              | SLEq => 0x93 | SLGt => 0x94 | SLLt => 0x95 | SBreak => 0xa5 | SCont => 0x9f | SBrkPt => 0xcc end.
Definition sk_info (sk : skind) : N :=
  match sk with SRet => 80 | SSleep => 91 | SStall => 90 | SLNot => 64 | SLAnd => 62 | SLOr => 63
              | SLEq => 65 | SLGt => 66 | SLLt => 67 | SBreak => 81 | SCont => 75 | SBrkPt => 82 end.
Definition sk_af (sk : skind) : N :=
  match sk with SRet | SSleep | SStall | SLNot => 2 | SLAnd | SLOr | SLEq | SLGt | SLLt => 514 | SBreak | SCont | SBrkPt => 0 end.
Definition sk_n (sk : skind) : nat :=
  match sk with SRet | SSleep | SStall | SLNot => 1 | SLAnd | SLOr | SLEq | SLGt | SLLt => 2 | SBreak | SCont | SBrkPt => 0 end.
Lemma sk_row sk : opInfo (sk_info sk) = Some (sk_op sk, 16, sk_af sk) /\ opcodeTableIndex (sk_op sk) false = Some (sk_info sk) /\
  argCount (sk_af sk) = N.of_nat (sk_n sk) /\ termArgIndex (sk_af sk) = 0.
Proof. destruct sk; repeat split; reflexivity. Qed.
Definition slo (sk : skind) : N := lenN (enc_op (sk_op sk)).

Inductive item : Type :=
| IName (d : decl)
| IBlk (bk : bkind) (k seg : N) (fa : list N) (body : list item)
| ILeaf (lk : lkind) (seg : N) (fa : list N) (ta : list targ)
| IPkg (seg k n : N) (elems : list pel)           (* Name(SEG, Package(n){ constants and packages }) *)
| IStmt (sk : skind) (ta : list targ).            (* a statement: operator with constant operands *)

(** Device and Method blocks (the fragments F1 / F2) *)
Definition IDev (k seg : N) (body : list item) : item := IBlk BDev k seg [] body.
Definition IMeth (k seg fl : N) (body : list item) : item := IBlk BMeth k seg [fl] body.

(** the fixed data arguments of a block with their widths *)
Definition bfx (bk : bkind) (fa : list N) : fxs := combine (bk_ws bk) fa.
Definition blo (bk : bkind) : N := lenN (enc_op (bk_op bk)).
Definition lfx (lk : lkind) (fa : list N) : fxs := combine (lk_ws lk) fa.
Definition llo (lk : lkind) : N := lenN (enc_op (lk_op lk)).
(** the constant TermArg arguments of a leaf object (only opcode and value of the [decl] are used) *)
Definition cst_okb (d : decl) : bool := is_constb (d_op d) && (d_v d <? 2 ^ (N.of_nat (const_bytes (d_op d)) * 8)).
Definition str_okb (b : list N) : bool := forallb (fun c => (1 <=? c) && (c <=? 127)) b.
Definition enc_targ (a : targ) : list N := match a with TInt d => enc_const d | TStr b => OP_STRING :: b ++ [0] end.
Definition targ_okb (a : targ) : bool := match a with TInt d => cst_okb d | TStr b => str_okb b end.
Definition enc_ta (ta : list targ) : list N := flat_map enc_targ ta.

Fixpoint enc_pel (e : pel) : list N :=
  match e with
  | PLeaf a => enc_targ a
  | PSub k n es => [OP_PACKAGE] ++ enc_pkglen k (k + lenN ([n] ++ flat_map enc_pel es)) ++ [n] ++ flat_map enc_pel es
  end.
Definition enc_pels (es : list pel) : list N := flat_map enc_pel es.
(** [pel_sz]: number of objects of a package element; [pel_cnt]: number of turns of the object-list loop *)
Fixpoint pel_sz (e : pel) : nat :=
  match e with PLeaf _ => 1%nat | PSub _ _ es => (3 + fold_right (fun x n => (pel_sz x + n)%nat) O es)%nat end.
Definition pels_sz (es : list pel) : nat := fold_right (fun x n => (pel_sz x + n)%nat) O es.
Fixpoint pel_cnt (e : pel) : nat :=
  match e with PLeaf _ => 1%nat | PSub _ _ es => (2 + fold_right (fun x n => (pel_cnt x + n)%nat) O es)%nat end.
Definition pels_cnt (es : list pel) : nat := fold_right (fun x n => (pel_cnt x + n)%nat) O es.

Fixpoint enc_item (it : item) : list N :=
  match it with
  | IName d => enc_decl d
  | IBlk bk k seg fa body =>
      enc_op (bk_op bk) ++ enc_pkglen k (k + lenN (seg_bytes seg ++ enc_fx (bfx bk fa) ++ flat_map enc_item body)) ++
      seg_bytes seg ++ enc_fx (bfx bk fa) ++ flat_map enc_item body
  | ILeaf lk seg fa ta => enc_op (lk_op lk) ++ seg_bytes seg ++ enc_fx (lfx lk fa) ++ enc_ta ta
  | IPkg seg k n elems => OP_NAME :: seg_bytes seg ++ [OP_PACKAGE] ++ enc_pkglen k (k + lenN ([n] ++ enc_pels elems)) ++ [n] ++ enc_pels elems
  | IStmt sk ta => enc_op (sk_op sk) ++ enc_ta ta
  end.
Definition enc_items (l : list item) : list N := flat_map enc_item l.

(** [isz]: number of objects the first pass allocates for an item; [icnt]: number of turns of the object-list loop it takes
    (the fuel the item costs) *)
Fixpoint isz (it : item) : nat :=
  match it with IName _ => 3%nat
              | IBlk bk _ _ fa body => (3 + length (bfx bk fa) + fold_right (fun x n => (isz x + n)%nat) O body)%nat
              | ILeaf lk _ fa ta => (2 + length (lfx lk fa) + length ta)%nat
              | IPkg _ _ _ elems => (5 + pels_sz elems)%nat
              | IStmt _ ta => (1 + length ta)%nat end.
Definition iszs (l : list item) : nat := fold_right (fun x n => (isz x + n)%nat) O l.

Fixpoint icnt (it : item) : nat :=
  match it with IName _ => 2%nat
              | IBlk bk _ _ fa body => (2 + length (bfx bk fa) + fold_right (fun x n => (icnt x + n)%nat) O body)%nat
              | ILeaf lk _ fa ta => (2 + length (lfx lk fa) + length ta)%nat
              | IPkg _ _ _ elems => (5 + pels_cnt elems)%nat
              | IStmt _ ta => (1 + length ta)%nat end.
Definition icnts (l : list item) : nat := fold_right (fun x n => (icnt x + n)%nat) O l.

Definition pkglen_okb (k v : N) : bool :=
  ((k =? 1) && (v <? 64)) || ((k =? 2) && (v <? 4096)) || ((k =? 3) && (v <? 1048576)) || ((k =? 4) && (v <? 268435456)).

Lemma pkglen_okb_adm k v : pkglen_okb k v = true -> pkglen_admissible k v.
Proof.
  unfold pkglen_okb, pkglen_admissible. intros H.
  repeat (apply orb_prop in H; destruct H as [H|H]); apply andb_prop in H; destruct H as [H1 H2];
    apply N.eqb_eq in H1; apply N.ltb_lt in H2; subst k.
  - left. auto.
  - right; left. split; [reflexivity|]. change (2 ^ 12) with 4096. exact H2.
  - right; right; left. split; [reflexivity|]. change (2 ^ 20) with 1048576. exact H2.
  - right; right; right. split; [reflexivity|]. change (2 ^ 28) with 268435456. exact H2.
Qed.

Fixpoint pel_okb (e : pel) : bool :=
  match e with
  | PLeaf a => targ_okb a
  | PSub k n es => (n <? 256) && pkglen_okb k (k + lenN ([n] ++ flat_map enc_pel es)) && forallb pel_okb es
  end.

Fixpoint item_okb (it : item) : bool :=
  match it with
  | IName d => decl_okb d && (d_seg d <? 0x100000000)
  | IBlk bk k seg fa body =>
      lead_okb (seg_lead seg) && (seg <? 0x100000000) && Nat.eqb (length fa) (length (bk_ws bk)) && fx_okb (bfx bk fa) &&
      pkglen_okb k (k + lenN (seg_bytes seg ++ enc_fx (bfx bk fa) ++ flat_map enc_item body)) && forallb item_okb body
  | ILeaf lk seg fa ta =>
      lead_okb (seg_lead seg) && (seg <? 0x100000000) && Nat.eqb (length fa) (length (lk_ws lk)) && fx_okb (lfx lk fa) &&
      Nat.eqb (length ta) (lk_nt lk) && forallb targ_okb ta
  | IPkg seg k n elems =>
      lead_okb (seg_lead seg) && (seg <? 0x100000000) && (n <? 256) && pkglen_okb k (k + lenN ([n] ++ enc_pels elems)) && forallb pel_okb elems
  | IStmt sk ta => Nat.eqb (length ta) (sk_n sk) && forallb targ_okb ta
  end.

(** ---- the trees ---- *)
Section Lay.
Variable h tbl : N.

Definition blk_pay (bk : bkind) (off : N) (nm : Name) : pay := mkPay (bk_op bk) (bk_info bk) h nm off 0 None.
Definition dev_pay (off : N) (nm : Name) : pay := blk_pay BDev off nm.
Definition mth_pay (off : N) (nm : Name) : pay := blk_pay BMeth off nm.
Definition sb_pay (off : N) : pay := mkPay aml_pOpIntScopeBlock 113 h name_zero off 0 None.
Definition pth_pay (off : N) : pay := mkPay aml_pOpIntNamePath 118 h name_zero off 0 (Some (VBytes tbl (mkSlice (Some off) 4))).
Definition nam_pay (off : N) (nm : Name) : pay := mkPay aml_pOpName 3 h nm off 0 None.
Definition cst_pay (off : N) (d : decl) : pay := mkPay (d_op d) (const_info (d_op d)) h name_zero off 0 (const_val (d_op d) (d_v d)).
Definition byt_pay (off v : N) : pay := cst_pay off (mkDecl 0 OP_BYTE v).

(** childless nodes in consecutive slots *)
Fixpoint leaf_row (b : N) (ps : list pay) : list rose :=
  match ps with [] => [] | p :: r => RN b p [] :: leaf_row (b + 1) r end.

(** name path and fixed data arguments of a block *)
Definition hd_pays (bk : bkind) (off k : N) (fa : list N) : list pay :=
  pth_pay (off + blo bk + k) :: fx_pays h (off + blo bk + k + 4) (bfx bk fa).
Definition sb_off (bk : bkind) (off k : N) (fa : list N) : N := off + blo bk + k + 4 + lenN (enc_fx (bfx bk fa)).
Definition nfx (bk : bkind) (fa : list N) : N := N.of_nat (length (bfx bk fa)).

(** a leaf named object: name path and fixed data arguments below it; the constants follow as siblings (first pass)
    or as further children (after connectNamedObjArgs) *)
Definition lf_pay (lk : lkind) (off : N) (nm : Name) : pay := mkPay (lk_op lk) (lk_info lk) h nm off 0 None.
Definition lhd_pays (lk : lkind) (off : N) (fa : list N) : list pay :=
  pth_pay (off + llo lk) :: fx_pays h (off + llo lk + 4) (lfx lk fa).
Definition ta_off (lk : lkind) (off : N) (fa : list N) : N := off + llo lk + 4 + lenN (enc_fx (lfx lk fa)).
Definition str_pay (off : N) (b : list N) : pay :=
  mkPay aml_pOpStringPrefix 7 h name_zero off 0 (Some (VBytes tbl (mkSlice (Some (off + 1)) (lenN b)))).
Definition targ_pay (off : N) (a : targ) : pay := match a with TInt d => cst_pay off d | TStr b => str_pay off b end.
Fixpoint cst_pays (off : N) (ta : list targ) : list pay :=
  match ta with [] => [] | a :: r => targ_pay off a :: cst_pays (off + lenN (enc_targ a)) r end.
Definition nlf (lk : lkind) (fa : list N) : N := N.of_nat (length (lfx lk fa)).
(** a Package: not a named object; children = number of elements (ByteData) and a ScopeBlock with the elements *)
Definition pkg_pay (off : N) : pay := mkPay aml_pOpPackage 11 h name_zero off 0 None.
(** a statement operator; its operands follow as siblings (first pass .. pass 4) or are its children (after resolveMethodCalls) *)
Definition st_pay (sk : skind) (off : N) : pay := mkPay (sk_op sk) (sk_info sk) h name_zero off 0 None.
Fixpoint pel_tree (b off : N) (e : pel) : rose :=
  match e with
  | PLeaf a => RN b (targ_pay off a) []
  | PSub k n es =>
      RN b (pkg_pay off) [RN (b + 1) (num_pay h W1 (off + 1 + k) n) [];
                          RN (b + 2) (sb_pay (off + 1 + k + 1))
                             ((fix go (b off : N) (l : list pel) {struct l} : list rose :=
                                 match l with [] => [] | x :: t => pel_tree b off x :: go (b + N.of_nat (pel_sz x)) (off + lenN (enc_pel x)) t end)
                                (b + 3) (off + 1 + k + 1) es)]
  end.
Fixpoint pel_trees (b off : N) (l : list pel) : list rose :=
  match l with [] => [] | x :: t => pel_tree b off x :: pel_trees (b + N.of_nat (pel_sz x)) (off + lenN (enc_pel x)) t end.
Definition pkg_tree (b off k n : N) (elems : list pel) : rose := pel_tree b off (PSub k n elems).
Lemma pel_tree_sub b off k n es : pel_tree b off (PSub k n es) =
  RN b (pkg_pay off) [RN (b + 1) (num_pay h W1 (off + 1 + k) n) [];
                      RN (b + 2) (sb_pay (off + 1 + k + 1)) (pel_trees (b + 3) (off + 1 + k + 1) es)].
Proof. reflexivity. Qed.

(** after the first pass: the constant is the next sibling of the Name object; names are not set *)
Fixpoint lay1_item (b off : N) (it : item) : list rose :=
  match it with
  | IName d => [RN b (nam_pay off name_zero) [RN (b + 1) (pth_pay (off + 1)) []]; RN (b + 2) (cst_pay (off + 5) d) []]
  | IBlk bk k seg fa body =>
      [RN b (blk_pay bk off name_zero)
          (leaf_row (b + 1) (hd_pays bk off k fa) ++
           [RN (b + 2 + nfx bk fa) (sb_pay (sb_off bk off k fa))
              ((fix go (b off : N) (l : list item) {struct l} : list rose :=
                  match l with [] => [] | x :: t => lay1_item b off x ++ go (b + N.of_nat (isz x)) (off + lenN (enc_item x)) t end)
                 (b + 3 + nfx bk fa) (sb_off bk off k fa) body)])]
  | ILeaf lk seg fa ta =>
      RN b (lf_pay lk off name_zero) (leaf_row (b + 1) (lhd_pays lk off fa)) :: leaf_row (b + 2 + nlf lk fa) (cst_pays (ta_off lk off fa) ta)
  | IPkg seg k n elems =>
      [RN b (nam_pay off name_zero) [RN (b + 1) (pth_pay (off + 1)) []]; pkg_tree (b + 2) (off + 5) k n elems]
  | IStmt sk ta => RN b (st_pay sk off) [] :: leaf_row (b + 1) (cst_pays (off + slo sk) ta)
  end.
Fixpoint lay1 (b off : N) (l : list item) : list rose :=
  match l with [] => [] | x :: t => lay1_item b off x ++ lay1 (b + N.of_nat (isz x)) (off + lenN (enc_item x)) t end.

Lemma lay1_blk b off bk k seg fa body : lay1_item b off (IBlk bk k seg fa body) =
  [RN b (blk_pay bk off name_zero)
      (leaf_row (b + 1) (hd_pays bk off k fa) ++
       [RN (b + 2 + nfx bk fa) (sb_pay (sb_off bk off k fa)) (lay1 (b + 3 + nfx bk fa) (sb_off bk off k fa) body)])].
Proof. reflexivity. Qed.

(** after connectNamedObjArgs: names set, the constant below the Name object *)
Fixpoint lay2_item (b off : N) (it : item) : list rose :=
  match it with
  | IName d => [RN b (nam_pay off (seg_nm (d_seg d))) [RN (b + 1) (pth_pay (off + 1)) []; RN (b + 2) (cst_pay (off + 5) d) []]]
  | IBlk bk k seg fa body =>
      [RN b (blk_pay bk off (seg_nm seg))
          (leaf_row (b + 1) (hd_pays bk off k fa) ++
           [RN (b + 2 + nfx bk fa) (sb_pay (sb_off bk off k fa))
              ((fix go (b off : N) (l : list item) {struct l} : list rose :=
                  match l with [] => [] | x :: t => lay2_item b off x ++ go (b + N.of_nat (isz x)) (off + lenN (enc_item x)) t end)
                 (b + 3 + nfx bk fa) (sb_off bk off k fa) body)])]
  | ILeaf lk seg fa ta =>
      [RN b (lf_pay lk off (seg_nm seg)) (leaf_row (b + 1) (lhd_pays lk off fa ++ cst_pays (ta_off lk off fa) ta))]
  | IPkg seg k n elems =>
      [RN b (nam_pay off (seg_nm seg)) [RN (b + 1) (pth_pay (off + 1)) []; pkg_tree (b + 2) (off + 5) k n elems]]
  | IStmt sk ta => RN b (st_pay sk off) [] :: leaf_row (b + 1) (cst_pays (off + slo sk) ta)
  end.
Fixpoint lay2 (b off : N) (l : list item) : list rose :=
  match l with [] => [] | x :: t => lay2_item b off x ++ lay2 (b + N.of_nat (isz x)) (off + lenN (enc_item x)) t end.

Lemma lay2_blk b off bk k seg fa body : lay2_item b off (IBlk bk k seg fa body) =
  [RN b (blk_pay bk off (seg_nm seg))
      (leaf_row (b + 1) (hd_pays bk off k fa) ++
       [RN (b + 2 + nfx bk fa) (sb_pay (sb_off bk off k fa)) (lay2 (b + 3 + nfx bk fa) (sb_off bk off k fa) body)])].
Proof. reflexivity. Qed.
(** after resolveMethodCalls: the operands of a statement are its children *)
Fixpoint lay5_item (b off : N) (it : item) : list rose :=
  match it with
  | IName d => [RN b (nam_pay off (seg_nm (d_seg d))) [RN (b + 1) (pth_pay (off + 1)) []; RN (b + 2) (cst_pay (off + 5) d) []]]
  | IBlk bk k seg fa body =>
      [RN b (blk_pay bk off (seg_nm seg))
          (leaf_row (b + 1) (hd_pays bk off k fa) ++
           [RN (b + 2 + nfx bk fa) (sb_pay (sb_off bk off k fa))
              ((fix go (b off : N) (l : list item) {struct l} : list rose :=
                  match l with [] => [] | x :: t => lay5_item b off x ++ go (b + N.of_nat (isz x)) (off + lenN (enc_item x)) t end)
                 (b + 3 + nfx bk fa) (sb_off bk off k fa) body)])]
  | ILeaf lk seg fa ta =>
      [RN b (lf_pay lk off (seg_nm seg)) (leaf_row (b + 1) (lhd_pays lk off fa ++ cst_pays (ta_off lk off fa) ta))]
  | IPkg seg k n elems =>
      [RN b (nam_pay off (seg_nm seg)) [RN (b + 1) (pth_pay (off + 1)) []; pkg_tree (b + 2) (off + 5) k n elems]]
  | IStmt sk ta => [RN b (st_pay sk off) (leaf_row (b + 1) (cst_pays (off + slo sk) ta))]
  end.
Fixpoint lay5 (b off : N) (l : list item) : list rose :=
  match l with [] => [] | x :: t => lay5_item b off x ++ lay5 (b + N.of_nat (isz x)) (off + lenN (enc_item x)) t end.

Lemma lay5_blk b off bk k seg fa body : lay5_item b off (IBlk bk k seg fa body) =
  [RN b (blk_pay bk off (seg_nm seg))
      (leaf_row (b + 1) (hd_pays bk off k fa) ++
       [RN (b + 2 + nfx bk fa) (sb_pay (sb_off bk off k fa)) (lay5 (b + 3 + nfx bk fa) (sb_off bk off k fa) body)])].
Proof. reflexivity. Qed.
End Lay.

(** ---- rows of childless nodes ---- *)
Lemma leaf_row_rsizes b ps : rsizes (leaf_row b ps) = length ps.
Proof. revert b. induction ps as [|p r IH]; intros b; [reflexivity|]. cbn [leaf_row rsizes fold_right length]. fold (rsizes (leaf_row (b + 1) r)). rewrite IH, rsize_eq. reflexivity. Qed.

Lemma leaf_row_idx b ps : map ridx (leaf_row b ps) = seqN b (length ps).
Proof. revert b. induction ps as [|p r IH]; intros b; [reflexivity|]. cbn [leaf_row map ridx length seqN]. rewrite IH. reflexivity. Qed.

Lemma leaf_row_nodes b ps x : In x (rnodesl (leaf_row b ps)) <-> b <= x < b + N.of_nat (length ps).
Proof.
  revert b. induction ps as [|p r IH]; intros b; [cbn; lia|].
  cbn [leaf_row length]. unfold rnodesl. cbn [flat_map]. rewrite rnodes_eq. cbn [rnodesl flat_map app In].
  fold (rnodesl (leaf_row (b + 1) r)). rewrite IH. lia.
Qed.

Lemma leaf_row_desc g pl b ps :
  (forall i p, nth_error ps i = Some p -> pget pl (b + N.of_nat i) = Some p /\ kids g (b + N.of_nat i) = []) ->
  Forall (Desc g pl) (leaf_row b ps).
Proof.
  revert b. induction ps as [|p r IH]; intros b Hall; [constructor|]. cbn [leaf_row]. constructor.
  - destruct (Hall 0%nat p eq_refl) as (A & B). rewrite N.add_0_r in A, B. constructor; [exact A|exact B|constructor].
  - apply IH. intros i q Hi. replace (b + 1 + N.of_nat i) with (b + N.of_nat (S i)) by lia. apply Hall. exact Hi.
Qed.

Lemma leaf_row_desc_inv g pl b ps : Forall (Desc g pl) (leaf_row b ps) ->
  forall i p, nth_error ps i = Some p -> pget pl (b + N.of_nat i) = Some p /\ kids g (b + N.of_nat i) = [].
Proof.
  revert b. induction ps as [|q r IH]; intros b HD i p Hi; [destruct i; discriminate|]. cbn [leaf_row] in HD.
  destruct i as [|i].
  - inversion Hi; subst q. destruct (Desc_inv _ _ _ _ _ (Forall_inv HD)) as (A & B & _). rewrite N.add_0_r. auto.
  - replace (b + N.of_nat (S i)) with (b + 1 + N.of_nat i) by lia. apply (IH (b + 1) (Forall_inv_tail HD) i p Hi).
Qed.

Lemma len_hd_pays h tbl bk off k fa : length (hd_pays h tbl bk off k fa) = S (length (bfx bk fa)).
Proof. unfold hd_pays. cbn [length]. rewrite len_fx_pays. reflexivity. Qed.

Lemma isz_blk bk k seg fa body : isz (IBlk bk k seg fa body) = (3 + length (bfx bk fa) + iszs body)%nat.
Proof. reflexivity. Qed.
Lemma icnt_blk bk k seg fa body : icnt (IBlk bk k seg fa body) = (2 + length (bfx bk fa) + icnts body)%nat.
Proof. reflexivity. Qed.
Lemma enc_blk bk k seg fa body : enc_item (IBlk bk k seg fa body) =
  enc_op (bk_op bk) ++ enc_pkglen k (k + lenN (seg_bytes seg ++ enc_fx (bfx bk fa) ++ enc_items body)) ++ seg_bytes seg ++ enc_fx (bfx bk fa) ++ enc_items body.
Proof. reflexivity. Qed.

Lemma isz_leaf lk seg fa ta : isz (ILeaf lk seg fa ta) = (2 + length (lfx lk fa) + length ta)%nat.
Proof. reflexivity. Qed.
Lemma icnt_leaf lk seg fa ta : icnt (ILeaf lk seg fa ta) = (2 + length (lfx lk fa) + length ta)%nat.
Proof. reflexivity. Qed.
Lemma enc_leaf lk seg fa ta : enc_item (ILeaf lk seg fa ta) = enc_op (lk_op lk) ++ seg_bytes seg ++ enc_fx (lfx lk fa) ++ enc_ta ta.
Proof. reflexivity. Qed.

Lemma leaf_row_app b p1 p2 : leaf_row b (p1 ++ p2) = leaf_row b p1 ++ leaf_row (b + N.of_nat (length p1)) p2.
Proof.
  revert b. induction p1 as [|p r IH]; intros b; [cbn [app length leaf_row]; rewrite N.add_0_r; reflexivity|].
  cbn [app leaf_row length]. rewrite IH. f_equal. f_equal. f_equal. lia.
Qed.

Lemma len_lhd_pays h tbl lk off fa : length (lhd_pays h tbl lk off fa) = S (length (lfx lk fa)).
Proof. unfold lhd_pays. cbn [length]. rewrite len_fx_pays. reflexivity. Qed.

Lemma len_cst_pays h tbl off ta : length (cst_pays h tbl off ta) = length ta.
Proof. revert off. induction ta as [|d r IH]; intros off; cbn [cst_pays length]; [reflexivity|rewrite IH; reflexivity]. Qed.

Lemma isz_pkg seg k n elems : isz (IPkg seg k n elems) = (5 + pels_sz elems)%nat.
Proof. reflexivity. Qed.
Lemma enc_pkg_item seg k n elems : enc_item (IPkg seg k n elems) =
  OP_NAME :: seg_bytes seg ++ [OP_PACKAGE] ++ enc_pkglen k (k + lenN ([n] ++ enc_pels elems)) ++ [n] ++ enc_pels elems.
Proof. reflexivity. Qed.
Lemma enc_pel_sub k n es : enc_pel (PSub k n es) = [OP_PACKAGE] ++ enc_pkglen k (k + lenN ([n] ++ enc_pels es)) ++ [n] ++ enc_pels es.
Proof. reflexivity. Qed.
Lemma pel_sz_sub k n es : pel_sz (PSub k n es) = (3 + pels_sz es)%nat. Proof. reflexivity. Qed.
Lemma pel_cnt_sub k n es : pel_cnt (PSub k n es) = (2 + pels_cnt es)%nat. Proof. reflexivity. Qed.
Lemma pel_okb_sub k n es : pel_okb (PSub k n es) = (n <? 256) && pkglen_okb k (k + lenN ([n] ++ enc_pels es)) && forallb pel_okb es.
Proof. reflexivity. Qed.
Lemma pel_sz_pos e : (1 <= pel_sz e)%nat. Proof. destruct e; [cbn; lia|rewrite pel_sz_sub; lia]. Qed.

(** induction on lists of package elements *)
Lemma pels_ind (P : list pel -> Prop) :
  P [] -> (forall a rest, P rest -> P (PLeaf a :: rest)) -> (forall k n es rest, P es -> P rest -> P (PSub k n es :: rest)) ->
  forall l, P l.
Proof.
  intros H0 HL HS.
  assert (Hn : forall m l, (pels_sz l <= m)%nat -> P l).
  { induction m as [|m IH]; intros l Hl.
    - destruct l as [|x t]; [exact H0|]. cbn [pels_sz fold_right] in Hl. pose proof (pel_sz_pos x). lia.
    - destruct l as [|x t]; [exact H0|]. cbn [pels_sz fold_right] in Hl. fold (pels_sz t) in Hl. pose proof (pel_sz_pos x).
      destruct x as [a|k n es].
      + apply HL. apply IH. cbn [pel_sz] in Hl. lia.
      + rewrite pel_sz_sub in Hl. apply HS; apply IH; lia. }
  intros l. apply (Hn (pels_sz l)). lia.
Qed.

Lemma isz_stmt sk ta : isz (IStmt sk ta) = (1 + length ta)%nat. Proof. reflexivity. Qed.
Lemma icnt_stmt sk ta : icnt (IStmt sk ta) = (1 + length ta)%nat. Proof. reflexivity. Qed.
Lemma enc_stmt sk ta : enc_item (IStmt sk ta) = enc_op (sk_op sk) ++ enc_ta ta. Proof. reflexivity. Qed.

Lemma isz_pos it : (1 <= isz it)%nat.
Proof. destruct it; [cbn; lia|rewrite isz_blk; lia|rewrite isz_leaf; lia|rewrite isz_pkg; lia|rewrite isz_stmt; lia]. Qed.

(** induction on the number of objects *)
Lemma items_ind (P : list item -> Prop) :
  P [] ->
  (forall d rest, P rest -> P (IName d :: rest)) ->
  (forall bk k seg fa body rest, P body -> P rest -> P (IBlk bk k seg fa body :: rest)) ->
  (forall lk seg fa ta rest, P rest -> P (ILeaf lk seg fa ta :: rest)) ->
  (forall seg k n elems rest, P rest -> P (IPkg seg k n elems :: rest)) ->
  (forall sk ta rest, P rest -> P (IStmt sk ta :: rest)) ->
  forall l, P l.
Proof.
  intros H0 Hn Hd Hlf Hpk Hst.
  assert (HS : forall n l, (iszs l <= n)%nat -> P l).
  { induction n as [|n IH]; intros l Hl.
    - destruct l as [|x t]; [exact H0|]. cbn [iszs fold_right] in Hl. pose proof (isz_pos x). lia.
    - destruct l as [|x t]; [exact H0|]. cbn [iszs fold_right] in Hl. fold (iszs t) in Hl. pose proof (isz_pos x).
      destruct x as [d|bk k seg fa body|lk seg fa ta|seg k ne elems|sk ta].
      + apply Hn. apply IH. lia.
      + rewrite isz_blk in Hl. apply Hd; apply IH; lia.
      + apply Hlf. apply IH. lia.
      + apply Hpk. apply IH. lia.
      + apply Hst. apply IH. lia. }
  intros l. apply (HS (iszs l)). lia.
Qed.
