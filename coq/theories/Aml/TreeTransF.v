(** findRelative of obj_tree.go: the hand-written model (Aml/Tree.v, [findRelative] / [findRelative_go]: structural recursion on
    the expression as a list with a [skipping] flag) equals the Go -> Gallina translation (Gen/Trans_aml_tree.v: an outer
    index loop around a skip loop and a sibling loop, which runs the byte-compare loop; labelled continues).  Continuation of Aml/TreeTrans.v.

    The regenerated term is compared, by [reflexivity] ([findRelative_unfold]), with a structured copy of itself - the step
    functions of its four loops as named definitions [fr_byte], [fr_skip], [fr_sib], [fr_outer] (cut out of the generated text;
    any change of the generated term breaks that lemma and with it the tie).  Then: the byte loop compares four bytes
    ([byte_loop]), the sibling loop is [find_sibling] on the same fuel ([sib_loop]), the skip loop advances by [skipcnt]
    ([skip_loop]), and the outer loop is the model's recursion with the invariant "the model's remaining list is
    [skipn segIndex expr]" ([outer_loop]).  Go ints are two's complement in 64 bits: the expression must be shorter than 2^62. *)
From Coq Require Import NArith PeanoNat List Bool Lia.
From FF Require Import Lib.Std Lib.Word Lib.GoOps Lib.GoOpsExt Lib.GoOpsProofs Lib.GoPool Gen.Consts_aml_tree Gen.Trans_aml_tree Aml.Stream Aml.Tree Aml.TreeTrans.
Import ListNotations.
Local Open Scope N_scope.
Transparent InvalidIndex opFreed.
Local Open Scope bool_scope.

Section F.
Context {V : Type}.
Notation Obj := (Object V).
Notation Tree := (ObjectTree V).
Local Notation go_aml_ObjectTree := (@FF.Gen.Trans_aml_tree.go_aml_ObjectTree V).

Definition fr_byte (v_expr : list N) (ix : N -> N) (v_obj : option N)
  : (go_aml_ObjectTree * N * bool) -> gres (gctl (go_aml_ObjectTree * N * bool) (go_aml_ObjectTree * N)) :=
  (fun st : (go_aml_ObjectTree * N * bool)%type => let '(v_tree, v_byteIndex, v_cont_checkNextSibling) := st in
  if (gslt 64 v_byteIndex tree_amlNameLen)
  then (match gidxs 64 v_expr (ix v_byteIndex) with None => GPanic | Some t9 =>
  match gderef (f_ObjectTree_objPool v_tree) v_obj with None => GPanic | Some t10 =>
  match gidxs 64 (f_Object_name t10) v_byteIndex with None => GPanic | Some t11 =>
  if (negb (t9 =? t11))
  then (let v_cont_checkNextSibling := true in
  (GOk (GBreak (v_tree, v_byteIndex, v_cont_checkNextSibling))))
  else (let v_byteIndex := (gw 64 (v_byteIndex + 1)) in
  (GOk (GNext (v_tree, v_byteIndex, v_cont_checkNextSibling)))) end end end)
  else ((GOk (GBreak (v_tree, v_byteIndex, v_cont_checkNextSibling))))).

Definition fr_skip (v_expr : list N) (v_exprLen : N)
  : (go_aml_ObjectTree * N) -> gres (gctl (go_aml_ObjectTree * N) (go_aml_ObjectTree * N)) :=
  (fun st : (go_aml_ObjectTree * N)%type => let '(v_tree, v_segIndex) := st in
  if true
  then (if (gslt 64 v_segIndex v_exprLen)
  then (match gidxs 64 v_expr v_segIndex with None => GPanic | Some t1 =>
  if (negb (t1 =? (95)%N))
  then (match gidxs 64 v_expr v_segIndex with None => GPanic | Some t2 =>
  if (t2 <? (65)%N)
  then (match gidxs 64 v_expr v_segIndex with None => GPanic | Some t3 =>
  match (if (t3 =? (0x2f)%N)
  then (let v_segIndex := (gw 64 (v_segIndex + 1)) in
  (GOk (v_tree, v_segIndex)))
  else ((GOk (v_tree, v_segIndex)))) : gres (go_aml_ObjectTree * N)%type with
  | GPanic => GPanic | GFuel => GFuel
  | GOk st => let '(v_tree, v_segIndex) := st in
  let v_segIndex := (gw 64 (v_segIndex + 1)) in
  (GOk (GNext (v_tree, v_segIndex)))
  end end)
  else (match gidxs 64 v_expr v_segIndex with None => GPanic | Some t4 =>
  if ((90)%N <? t4)
  then (match gidxs 64 v_expr v_segIndex with None => GPanic | Some t5 =>
  match (if (t5 =? (0x2f)%N)
  then (let v_segIndex := (gw 64 (v_segIndex + 1)) in
  (GOk (v_tree, v_segIndex)))
  else ((GOk (v_tree, v_segIndex)))) : gres (go_aml_ObjectTree * N)%type with
  | GPanic => GPanic | GFuel => GFuel
  | GOk st => let '(v_tree, v_segIndex) := st in
  let v_segIndex := (gw 64 (v_segIndex + 1)) in
  (GOk (GNext (v_tree, v_segIndex)))
  end end)
  else ((GOk (GBreak (v_tree, v_segIndex)))) end) end)
  else ((GOk (GBreak (v_tree, v_segIndex)))) end)
  else ((GOk (GBreak (v_tree, v_segIndex)))))
  else ((GOk (GBreak (v_tree, v_segIndex))))).

Definition fr_sib (fuel : nat) (v_expr : list N) (v_segIndex : N)
  : (go_aml_ObjectTree * bool * bool * N * N) -> gres (gctl (go_aml_ObjectTree * bool * bool * N * N) (go_aml_ObjectTree * N)) :=
  (fun st : (go_aml_ObjectTree * bool * bool * N * N)%type => let '(v_tree, v_cont_checkNextSibling, v_cont_nextSegment, v_nextIndex, v_scopeIndex) := st in
  if (negb (v_nextIndex =? tree_InvalidIndex))
  then (match go_aml_ObjectTree_ObjectAt v_tree v_nextIndex with GPanic => GPanic | GFuel => GFuel | GOk (v_tree, t8) =>
  let v_obj := t8 in
  let v_cont_checkNextSibling := false in
  let v_byteIndex := (gw 64 (0)%N) in
  match gloop (R := (go_aml_ObjectTree * N)%type) fuel (fr_byte v_expr (fun b => (gw 64 (v_segIndex + b))) v_obj) (v_tree, v_byteIndex, v_cont_checkNextSibling) with
  | GPanic => GPanic | GFuel => GFuel
  | GOk (inr r) => (GOk (GRet r))
  | GOk (inl st) => let '(v_tree, v_byteIndex, v_cont_checkNextSibling) := st in
  if v_cont_checkNextSibling
  then (match go_aml_ObjectTree_ObjectAt v_tree v_nextIndex with GPanic => GPanic | GFuel => GFuel | GOk (v_tree, t12) =>
  match gderef (f_ObjectTree_objPool v_tree) t12 with None => GPanic | Some t13 =>
  let v_nextIndex := (f_Object_nextSiblingIndex t13) in
  (GOk (GNext (v_tree, v_cont_checkNextSibling, v_cont_nextSegment, v_nextIndex, v_scopeIndex))) end end)
  else (let v_scopeIndex := v_nextIndex in
  let v_cont_nextSegment := true in
  (GOk (GBreak (v_tree, v_cont_checkNextSibling, v_cont_nextSegment, v_nextIndex, v_scopeIndex))))
  end end)
  else ((GOk (GBreak (v_tree, v_cont_checkNextSibling, v_cont_nextSegment, v_nextIndex, v_scopeIndex))))).

Definition fr_outer (fuel : nat) (v_expr : list N) (v_exprLen : N)
  : (go_aml_ObjectTree * bool * N * N) -> gres (gctl (go_aml_ObjectTree * bool * N * N) (go_aml_ObjectTree * N)) :=
  (fun st : (go_aml_ObjectTree * bool * N * N)%type => let '(v_tree, v_cont_nextSegment, v_scopeIndex, v_segIndex) := st in
  if (gslt 64 v_segIndex v_exprLen)
  then (match gloop (R := (go_aml_ObjectTree * N)%type) fuel (fr_skip v_expr v_exprLen) (v_tree, v_segIndex) with
  | GPanic => GPanic | GFuel => GFuel
  | GOk (inr r) => (GOk (GRet r))
  | GOk (inl st) => let '(v_tree, v_segIndex) := st in
  if (gslt 64 (gsub 64 v_exprLen v_segIndex) tree_amlNameLen)
  then ((GOk (GRet (v_tree, tree_InvalidIndex))))
  else (match go_aml_ObjectTree_ObjectAt v_tree v_scopeIndex with GPanic => GPanic | GFuel => GFuel | GOk (v_tree, t6) =>
  let v_scopeObj := t6 in
  let v_cont_nextSegment := false in
  let v_cont_checkNextSibling := false in
  match gderef (f_ObjectTree_objPool v_tree) v_scopeObj with None => GPanic | Some t7 =>
  let v_nextIndex := (f_Object_firstArgIndex t7) in
  match gloop (R := (go_aml_ObjectTree * N)%type) fuel (fr_sib fuel v_expr v_segIndex) (v_tree, v_cont_checkNextSibling, v_cont_nextSegment, v_nextIndex, v_scopeIndex) with
  | GPanic => GPanic | GFuel => GFuel
  | GOk (inr r) => (GOk (GRet r))
  | GOk (inl st) => let '(v_tree, v_cont_checkNextSibling, v_cont_nextSegment, v_nextIndex, v_scopeIndex) := st in
  if v_cont_nextSegment
  then (let v_segIndex := (gw 64 (v_segIndex + tree_amlNameLen)) in
  (GOk (GNext (v_tree, v_cont_nextSegment, v_scopeIndex, v_segIndex))))
  else ((GOk (GRet (v_tree, tree_InvalidIndex))))
  end end end)
  end)
  else ((GOk (GBreak (v_tree, v_cont_nextSegment, v_scopeIndex, v_segIndex))))).

Definition fr_main (fuel : nat) (v_tree : go_aml_ObjectTree) (v_scopeIndex : N) (v_expr : list N) : gres (go_aml_ObjectTree * N) :=
  let v_exprLen := (glen v_expr) in
  let v_cont_nextSegment := false in
  let v_segIndex := (gw 64 (0)%N) in
  match gloop (R := (go_aml_ObjectTree * N)%type) fuel (fr_outer fuel v_expr v_exprLen) (v_tree, v_cont_nextSegment, v_scopeIndex, v_segIndex) with
  | GPanic => GPanic | GFuel => GFuel
  | GOk (inr r) => (GOk r)
  | GOk (inl st) => let '(v_tree, v_cont_nextSegment, v_scopeIndex, v_segIndex) := st in
  (GOk (v_tree, v_scopeIndex))
  end.

Lemma findRelative_unfold : forall fuel g scope expr,
  go_aml_ObjectTree_findRelative fuel g scope expr = fr_main fuel g scope expr.
Proof. reflexivity. Qed.

(** ---- arithmetic of Go int (two's complement in 64 bits) on small values ---- *)
(** [exprLen - segIndex < amlNameLen] for 0 <= segIndex <= exprLen + 1; at [exprLen + 1] the difference is -1 *)
Lemma gslt_sub_small : forall len k, len < 2 ^ 62 -> k <= len + 1 ->
  gslt 64 (gsub 64 len k) 4 = (len <? k + 4).
Proof.
  intros len k Hl Hk. change (2 ^ 62) with 4611686018427387904 in Hl.
  destruct (N.le_gt_cases k len) as [Hle|Hgt].
  - rewrite gsub64_small by (unfold two64; lia).
    rewrite gslt_small by (unfold two63; change (2 ^ 63) with 9223372036854775808; lia).
    destruct (N.ltb_spec (len - k) 4); symmetry; [apply N.ltb_lt | apply N.ltb_ge]; lia.
  - replace k with (len + 1) by lia. replace (len <? len + 1 + 4) with true by (symmetry; apply N.ltb_lt; lia).
    unfold gsub. rewrite (gw64_small (len + 1)) by (unfold two64; lia).
    replace (len + 2 ^ 64 - (len + 1)) with (2 ^ 64 - 1) by (change (2 ^ 64) with 18446744073709551616; lia).
    reflexivity.
Qed.

(** ---- the byte-compare loop ---- *)
Lemma fr_byte_step : forall (t : Tree) expr ix p o bi c b n,
  deref t p = Ok o -> bi < 4 -> ix bi < 2 ^ 63 ->
  nth_error expr (N.to_nat (ix bi)) = Some b ->
  nth_error (name_bytes (o_name o)) (N.to_nat bi) = Some n ->
  fr_byte expr ix (Some p) (tr_tree t, bi, c) =
  if b =? n then GOk (GNext (tr_tree t, bi + 1, c)) else GOk (GBreak (tr_tree t, bi, true)).
Proof.
  intros t expr ix p o bi c b n D Hb Hix Hb0 Hn. unfold fr_byte.
  assert (bi < 2 ^ 63) by (change (2 ^ 63) with 9223372036854775808; lia).
  rewrite gslt_small by (rewrite ?TreeProofs.amlNameLen_is_4; trivial; reflexivity).
  rewrite TreeProofs.amlNameLen_is_4. replace (bi <? 4) with true by (symmetry; now apply N.ltb_lt).
  rewrite gidxs_small by assumption. unfold gidx. rewrite Hb0. rewrite gderef_tr, D.
  change (f_Object_name (tr_obj o)) with (name_bytes (o_name o)).
  rewrite gidxs_small by assumption. unfold gidx. rewrite Hn.
  destruct (b =? n); cbn [negb]; [|reflexivity].
  rewrite gw64_small; [reflexivity|]. unfold two64. lia.
Qed.

Lemma fr_byte_end : forall (g : go_aml_ObjectTree) expr ix obj c,
  fr_byte expr ix obj (g, 4, c) = GOk (GBreak (g, 4, c)).
Proof. reflexivity. Qed.

Lemma byte_loop : forall (t : Tree) expr ix p o b0 b1 b2 b3 fuel,
  deref t p = Ok o ->
  ix 0 < 2 ^ 63 -> ix 1 < 2 ^ 63 -> ix 2 < 2 ^ 63 -> ix 3 < 2 ^ 63 ->
  nth_error expr (N.to_nat (ix 0)) = Some b0 -> nth_error expr (N.to_nat (ix 1)) = Some b1 ->
  nth_error expr (N.to_nat (ix 2)) = Some b2 -> nth_error expr (N.to_nat (ix 3)) = Some b3 ->
  (5 <= fuel)%nat ->
  exists bi, gloop fuel (fr_byte expr ix (Some p)) (tr_tree t, 0, false) =
             GOk (inl (tr_tree t, bi, negb (name_eqb (b0, b1, b2, b3) (o_name o)))).
Proof.
  intros t expr ix p o b0 b1 b2 b3 fuel D I0 I1 I2 I3 H0 H1 H2 H3 Hf.
  do 5 (destruct fuel as [|fuel]; [lia|]). clear Hf.
  destruct (o_name o) as [[[n0 n1] n2] n3] eqn:En.
  assert (N0 : nth_error (name_bytes (o_name o)) (N.to_nat 0) = Some n0) by (rewrite En; reflexivity).
  assert (N1 : nth_error (name_bytes (o_name o)) (N.to_nat 1) = Some n1) by (rewrite En; reflexivity).
  assert (N2 : nth_error (name_bytes (o_name o)) (N.to_nat 2) = Some n2) by (rewrite En; reflexivity).
  assert (N3 : nth_error (name_bytes (o_name o)) (N.to_nat 3) = Some n3) by (rewrite En; reflexivity).
  unfold name_eqb.
  rewrite gloop_S, (fr_byte_step t expr ix p o 0 false b0 n0 D eq_refl I0 H0 N0).
  destruct (b0 =? n0); [|eexists; reflexivity]. change (0 + 1) with 1.
  rewrite gloop_S, (fr_byte_step t expr ix p o 1 false b1 n1 D eq_refl I1 H1 N1).
  destruct (b1 =? n1); [|eexists; reflexivity]. change (1 + 1) with 2.
  rewrite gloop_S, (fr_byte_step t expr ix p o 2 false b2 n2 D eq_refl I2 H2 N2).
  destruct (b2 =? n2); [|eexists; reflexivity]. change (2 + 1) with 3.
  rewrite gloop_S, (fr_byte_step t expr ix p o 3 false b3 n3 D eq_refl I3 H3 N3).
  destruct (b3 =? n3); [|eexists; reflexivity]. change (3 + 1) with 4.
  rewrite gloop_S, fr_byte_end. eexists; reflexivity.
Qed.

Lemma byte_loop_nil : forall (g : go_aml_ObjectTree) expr ix b0 fuel,
  ix 0 < 2 ^ 63 -> nth_error expr (N.to_nat (ix 0)) = Some b0 -> (1 <= fuel)%nat ->
  gloop fuel (fr_byte expr ix None) (g, 0, false) = GPanic.
Proof.
  intros g expr ix b0 fuel I0 H0 Hf. destruct fuel as [|fuel]; [lia|].
  rewrite gloop_S. unfold fr_byte.
  rewrite gslt_small by (rewrite ?TreeProofs.amlNameLen_is_4; reflexivity).
  rewrite TreeProofs.amlNameLen_is_4. change (0 <? 4) with true. cbv iota.
  rewrite gidxs_small by assumption. unfold gidx. rewrite H0. reflexivity.
Qed.

(** ---- the sibling loop of findRelative against [find_sibling] (same fuel on both sides) ---- *)
Lemma ObjectAt_some_deref : forall (t : Tree) i p, ObjectAt t i = Some p -> p = i /\ exists o, deref t i = Ok o.
Proof.
  intros t i p. unfold ObjectAt, deref.
  destruct (pool_len t <=? i); [discriminate|].
  destruct (nth_error (t_pool t) (N.to_nat i)) as [o|]; [|discriminate].
  destruct (o_opcode o =? opFreed); [discriminate|]. intro H; inversion H. split; [reflexivity|eauto].
Qed.

Definition sib_expected (g : go_aml_ObjectTree) (ccs' cns : bool) (scope : N) (r : outcome (option N))
  : gres ((go_aml_ObjectTree * bool * bool * N * N) + (go_aml_ObjectTree * N)) :=
  match r with
  | Ok None => GOk (inl (g, ccs', cns, tree_InvalidIndex, scope))
  | Ok (Some c) => GOk (inl (g, false, true, c, c))
  | Panic => GPanic
  | OutOfFuel => GFuel
  end.

Lemma sib_loop : forall (t : Tree) expr seg b0 b1 b2 b3 fuel,
  seg + 4 < 2 ^ 63 -> (5 <= fuel)%nat ->
  nth_error expr (N.to_nat (seg + 0)) = Some b0 -> nth_error expr (N.to_nat (seg + 1)) = Some b1 ->
  nth_error expr (N.to_nat (seg + 2)) = Some b2 -> nth_error expr (N.to_nat (seg + 3)) = Some b3 ->
  forall f ccs cns next scope,
  exists ccs', gloop f (fr_sib fuel expr seg) (tr_tree t, ccs, cns, next, scope) =
               sib_expected (tr_tree t) ccs' cns scope (find_sibling f t next (b0, b1, b2, b3)).
Proof.
  intros t expr seg b0 b1 b2 b3 fuel Hs Hf H0 H1 H2 H3.
  assert (IX : forall k, k < 4 -> gw 64 (seg + k) = seg + k).
  { intros k Hk. apply gw64_small. change (2 ^ 63) with 9223372036854775808 in Hs.
    unfold two64. lia. }
  assert (IXb : forall k, k < 4 -> gw 64 (seg + k) < 2 ^ 63).
  { intros k Hk. rewrite IX by assumption. change (2 ^ 63) with 9223372036854775808 in *. lia. }
  induction f as [|f IH]; intros ccs cns next scope; [exists false; reflexivity|].
  cbn [find_sibling]. rewrite gloop_S. unfold fr_sib at 1. unfold InvalidIndex.
  destruct (next =? tree_InvalidIndex) eqn:E; cbn [negb].
  - apply N.eqb_eq in E. subst next. exists ccs; reflexivity.
  - rewrite ObjectAt_is_translation. unfold ObjectAt_deref.
    destruct (ObjectAt t next) as [p|] eqn:OA; cbn [bind].
    + destruct (ObjectAt_some_deref _ _ _ OA) as [-> [o D]]. rewrite D. cbn [bind].
      cbv zeta. change (gw 64 0) with 0.
      destruct (byte_loop t expr (fun b => gw 64 (seg + b)) next o b0 b1 b2 b3 fuel D
                  (IXb 0 eq_refl) (IXb 1 eq_refl) (IXb 2 eq_refl) (IXb 3 eq_refl)) as [bi BL]; trivial;
        try (rewrite IX by reflexivity; assumption).
      rewrite BL. cbv iota beta.
      destruct (name_eqb (b0, b1, b2, b3) (o_name o)); cbn [negb].
      * exists false; reflexivity.
      * rewrite ObjectAt_is_translation, OA, gderef_tr, D.
        change (f_Object_nextSiblingIndex (tr_obj o)) with (o_next o).
        apply IH.
    + cbv zeta. change (gw 64 0) with 0.
      exists false. rewrite (byte_loop_nil (tr_tree t) expr (fun b => gw 64 (seg + b)) b0 fuel); trivial.
      * apply (IXb 0 eq_refl). * rewrite IX by reflexivity. assumption. * lia.
Qed.

(** ---- the skip loop: bytes that cannot start a name are stepped over (0x2f together with the byte behind it) ---- *)
Fixpoint skipcnt (l : list N) : nat :=
  match l with
  | [] => 0
  | b :: r => if is_lead b then 0
              else if b =? 0x2f then match r with _ :: r' => 2 + skipcnt r' | [] => 2 end
              else 1 + skipcnt r
  end.

Lemma skipcnt_le : forall n l, (length l <= n)%nat -> (skipcnt l <= length l + 1)%nat.
Proof.
  induction n as [|n IH]; intros [|b r] H; cbn [skipcnt length] in *; try lia.
  destruct (is_lead b); [lia|]. destruct (b =? 47).
  - destruct r as [|x r']; cbn [length] in *; [lia|]. specialize (IH r'). lia.
  - specialize (IH r). lia.
Qed.

Lemma skipn_cons_nth : forall (l : list N) k b r, skipn k l = b :: r -> nth_error l k = Some b /\ (k < length l)%nat.
Proof.
  induction l as [|x l IH]; intros [|k] b r H; cbn in *; try discriminate.
  - inversion H. split; [reflexivity|lia].
  - destruct (IH k b r H). split; [assumption|lia].
Qed.

Lemma skipn_nil_len : forall (l : list N) k, skipn k l = [] -> (length l <= k)%nat.
Proof. intros l k H. pose proof (skipn_length k l) as L. rewrite H in L. cbn in L. lia. Qed.

Lemma nth_error_skipn' : forall (l : list N) k i, nth_error (skipn k l) i = nth_error l (k + i).
Proof. induction l as [|x l IH]; intros [|k] i; cbn; try reflexivity. - now destruct i. - apply IH. Qed.

Lemma is_lead_go : forall b, is_lead b = negb (negb (b =? 95) && ((b <? 65) || (90 <? b))).
Proof.
  intros b. unfold is_lead.
  destruct (N.eqb_spec b 95), (N.leb_spec 65 b), (N.leb_spec b 90), (N.ltb_spec b 65), (N.ltb_spec 90 b); cbn; try reflexivity; lia.
Qed.

Section Expr.
Variable expr : list N.
Hypothesis expr_small : N.of_nat (length expr) < 2 ^ 62.

Lemma of_nat_small : forall k, (k <= length expr + 8)%nat -> N.of_nat k < 2 ^ 63.
Proof. intros. change (2 ^ 62) with 4611686018427387904 in *. change (2 ^ 63) with 9223372036854775808. lia. Qed.

Lemma fr_skip_step : forall (g : go_aml_ObjectTree) k, (k <= length expr + 1)%nat ->
  fr_skip expr (glen expr) (g, N.of_nat k) =
  match skipn k expr with
  | [] => GOk (GBreak (g, N.of_nat k))
  | b :: _ => if is_lead b then GOk (GBreak (g, N.of_nat k))
              else if b =? 0x2f then GOk (GNext (g, N.of_nat (k + 2))) else GOk (GNext (g, N.of_nat (k + 1)))
  end.
Proof.
  intros g k Hk. unfold fr_skip, glen.
  rewrite gslt_small by (apply of_nat_small; lia).
  destruct (skipn k expr) as [|b r] eqn:E.
  - apply skipn_nil_len in E. replace (N.of_nat k <? N.of_nat (length expr)) with false; [reflexivity|].
    symmetry. apply N.ltb_ge. lia.
  - destruct (skipn_cons_nth _ _ _ _ E) as [Nb Lk].
    replace (N.of_nat k <? N.of_nat (length expr)) with true by (symmetry; apply N.ltb_lt; lia).
    rewrite !gidxs_small by (apply of_nat_small; lia). unfold gidx. rewrite Nat2N.id, Nb.
    rewrite is_lead_go.
    assert (W1 : gw 64 (N.of_nat k + 1) = N.of_nat (k + 1)).
    { rewrite gw64_small; [lia|]. change (2 ^ 62) with 4611686018427387904 in *. unfold two64. lia. }
    assert (W2 : gw 64 (N.of_nat (k + 1) + 1) = N.of_nat (k + 2)).
    { rewrite gw64_small; [lia|]. change (2 ^ 62) with 4611686018427387904 in *. unfold two64. lia. }
    destruct (b =? 95); cbn [negb andb]; [reflexivity|].
    destruct (b <? 65); cbn [orb negb].
    + destruct (b =? 47); cbv zeta iota beta; rewrite ?W1, ?W2; reflexivity.
    + destruct (90 <? b); cbn [negb]; [|reflexivity].
      destruct (b =? 47); cbv zeta iota beta; rewrite ?W1, ?W2; reflexivity.
Qed.

Lemma skip_loop : forall (g : go_aml_ObjectTree) n l k fs,
  (length l <= n)%nat -> l = skipn k expr -> (k <= length expr + 1)%nat -> (n + 2 <= fs)%nat ->
  gloop fs (fr_skip expr (glen expr)) (g, N.of_nat k) = GOk (inl (g, N.of_nat (k + skipcnt l))).
Proof.
  intros g. induction n as [|n IH]; intros l k fs Hl El Hk Hf; (destruct fs as [|fs]; [lia|]);
    rewrite gloop_S, fr_skip_step by assumption; rewrite <- El.
  - destruct l; [|cbn in Hl; lia]. cbn [skipcnt]. now rewrite Nat.add_0_r.
  - destruct l as [|b r]; [cbn [skipcnt]; now rewrite Nat.add_0_r|]. cbn [skipcnt].
    destruct (is_lead b); [now rewrite Nat.add_0_r|].
    symmetry in El. destruct (skipn_cons_nth _ _ _ _ El) as [_ Lk]. cbn [length] in Hl.
    destruct (b =? 47).
    + assert (E2 : skipn (k + 2) expr = skipn 1 r) by (rewrite <- skipn_skipn', El; reflexivity).
      pose proof (skipn_length k expr) as SL. rewrite El in SL. cbn [length] in SL.
      destruct r as [|x r']; cbn [length skipn] in *.
      * assert (A1 : (length (@nil N) <= n)%nat) by (cbn; lia).
        assert (A2 : [] = skipn (k + 2) expr) by (now rewrite E2).
        assert (A3 : (k + 2 <= length expr + 1)%nat) by lia.
        assert (A4 : (n + 2 <= fs)%nat) by lia.
        rewrite (IH [] (k + 2)%nat fs A1 A2 A3 A4). cbn [skipcnt]. do 3 f_equal; lia.
      * assert (A1 : (length r' <= n)%nat) by lia.
        assert (A2 : r' = skipn (k + 2) expr) by (now rewrite E2).
        assert (A3 : (k + 2 <= length expr + 1)%nat) by lia.
        assert (A4 : (n + 2 <= fs)%nat) by lia.
        rewrite (IH r' (k + 2)%nat fs A1 A2 A3 A4). do 3 f_equal; lia.
    + assert (E1 : skipn (k + 1) expr = r) by (rewrite <- skipn_skipn', El; reflexivity).
      assert (A1 : (length r <= n)%nat) by lia.
      assert (A2 : r = skipn (k + 1) expr) by (now rewrite E1).
      assert (A3 : (k + 1 <= length expr + 1)%nat) by lia.
      assert (A4 : (n + 2 <= fs)%nat) by lia.
      rewrite (IH r (k + 1)%nat fs A1 A2 A3 A4). do 3 f_equal; lia.
Qed.
End Expr.

(** ---- the model with the sibling-walk fuel as a parameter ([chain_fuel t] in Aml/Tree.v) ---- *)
Fixpoint findRelative_go_f (f : nat) (skipping : bool) (t : Tree) (scopeIndex : N) (expr : list N) : outcome N :=
  match expr with
  | [] => if skipping then Ok InvalidIndex else Ok scopeIndex
  | b0 :: rest0 =>
      if is_lead b0 then
        match rest0 with
        | b1 :: b2 :: b3 :: rest =>
            do scopeObj <- ObjectAt_deref t scopeIndex;
            do first <- rd t scopeObj o_first;
            do r <- find_sibling f t first (b0, b1, b2, b3);
            match r with
            | Some c => findRelative_go_f f false t c rest
            | None => Ok InvalidIndex
            end
        | _ => Ok InvalidIndex
        end
      else if b0 =? 0x2f then
        match rest0 with
        | _ :: rest1 => findRelative_go_f f true t scopeIndex rest1
        | [] => Ok InvalidIndex
        end
      else findRelative_go_f f true t scopeIndex rest0
  end.

Lemma findRelative_go_f_chain : forall (t : Tree) n l sk s,
  (length l <= n)%nat -> findRelative_go_f (chain_fuel t) sk t s l = findRelative_go sk t s l.
Proof.
  intros t. induction n as [|n IH]; intros l sk s H.
  - destruct l; [reflexivity|cbn in H; lia].
  - destruct l as [|b0 r0]; [reflexivity|]. cbn [findRelative_go_f findRelative_go]. cbn [length] in H.
    destruct (is_lead b0).
    + destruct r0 as [|b1 [|b2 [|b3 rest]]]; try reflexivity. cbn [length] in H.
      destruct (ObjectAt_deref t s); cbn [bind]; try reflexivity.
      destruct (rd t a o_first); cbn [bind]; try reflexivity.
      destruct (find_sibling (chain_fuel t) t a0 (b0, b1, b2, b3)) as [[c|]| |]; cbn [bind]; try reflexivity.
      apply IH. lia.
    + destruct (b0 =? 47).
      * destruct r0 as [|x r1]; [reflexivity|]. cbn [length] in H. apply IH. lia.
      * apply IH. lia.
Qed.

(** one segment: what both sides do once the skip loop has stopped at [l'] *)
Definition seg_step (f : nat) (t : Tree) (s : N) (l' : list N) : outcome N :=
  match l' with
  | b0 :: b1 :: b2 :: b3 :: rest =>
      do scopeObj <- ObjectAt_deref t s;
      do first <- rd t scopeObj o_first;
      do r <- find_sibling f t first (b0, b1, b2, b3);
      match r with
      | Some c => findRelative_go_f f false t c rest
      | None => Ok InvalidIndex
      end
  | _ => Ok InvalidIndex
  end.

Lemma model_skip : forall f (t : Tree) n l, (length l <= n)%nat -> l <> [] ->
  forall sk s, findRelative_go_f f sk t s l = seg_step f t s (skipn (skipcnt l) l).
Proof.
  intros f t. induction n as [|n IH]; intros l H Hne sk s.
  - destruct l; [contradiction|cbn in H; lia].
  - destruct l as [|b r]; [contradiction|]. cbn [findRelative_go_f skipcnt]. cbn [length] in H.
    destruct (is_lead b) eqn:Lb.
    + cbn [skipn]. unfold seg_step. destruct r as [|b1 [|b2 [|b3 rest]]]; reflexivity.
    + destruct (b =? 47).
      * destruct r as [|x r']; [reflexivity|]. cbn [length] in H.
        change (skipn (2 + skipcnt r') (b :: x :: r')) with (skipn (skipcnt r') r').
        destruct r' as [|y r'']; [reflexivity|]. apply IH; [cbn [length] in *; lia|discriminate].
      * change (skipn (1 + skipcnt r) (b :: r)) with (skipn (skipcnt r) r).
        destruct r as [|y r'']; [reflexivity|]. apply IH; [cbn [length] in *; lia|discriminate].
Qed.

(** ---- the outer loop of findRelative ---- *)
Definition fr_post (x : gres ((go_aml_ObjectTree * bool * N * N) + (go_aml_ObjectTree * N))) : gres (go_aml_ObjectTree * N) :=
  match x with
  | GPanic => GPanic | GFuel => GFuel
  | GOk (inr r) => GOk r
  | GOk (inl st) => let '(g, _, s, _) := st in GOk (g, s)
  end.

Section Expr2.
Variable expr : list N.
Hypothesis expr_small : N.of_nat (length expr) < 2 ^ 62.
Variable t : Tree.
Variable fuel : nat.
Hypothesis fuel_big : (length expr + 5 < fuel)%nat.

Lemma outer_loop : forall n l k scope cns fo,
  (length l <= n)%nat -> l = skipn k expr -> (k <= length expr)%nat -> (n < fo)%nat ->
  fr_post (gloop fo (fr_outer fuel expr (glen expr)) (tr_tree t, cns, scope, N.of_nat k)) =
  lift (fun r => (tr_tree t, r)) (findRelative_go_f fuel false t scope l).
Proof.
  induction n as [|n IH]; intros l k scope cns fo Hl El Hk Hfo; (destruct fo as [|fo]; [lia|]);
    rewrite gloop_S; unfold fr_outer at 1; unfold glen at 1;
    rewrite gslt_small by (apply (of_nat_small expr expr_small); lia).
  - destruct l; [|cbn in Hl; lia]. symmetry in El. apply skipn_nil_len in El.
    replace (N.of_nat k <? N.of_nat (length expr)) with false by (symmetry; apply N.ltb_ge; lia).
    reflexivity.
  - destruct l as [|b r].
    { symmetry in El. apply skipn_nil_len in El.
      replace (N.of_nat k <? N.of_nat (length expr)) with false by (symmetry; apply N.ltb_ge; lia).
      reflexivity. }
    pose proof (skipn_length k expr) as SL. rewrite <- El in SL.
    assert (Lk : (k < length expr)%nat) by (cbn [length] in SL; lia).
    replace (N.of_nat k <? N.of_nat (length expr)) with true by (symmetry; apply N.ltb_lt; lia).
    set (l := b :: r) in *.
    pose proof (skipcnt_le (length l) l (le_n _)) as SC.
    rewrite (skip_loop expr expr_small (tr_tree t) (length l) l k fuel (le_n _) El) by lia.
    cbv iota beta.
    set (k' := (k + skipcnt l)%nat).
    assert (El' : skipn k' expr = skipn (skipcnt l) l) by (unfold k'; rewrite <- skipn_skipn', <- El; reflexivity).
    rewrite (model_skip fuel t (length l) l (le_n _)) by (unfold l; discriminate).
    rewrite <- El'.
    pose proof (skipn_length k' expr) as SL'.
    unfold glen. rewrite TreeProofs.amlNameLen_is_4.
    rewrite (gslt_sub_small (N.of_nat (length expr)) (N.of_nat k') expr_small) by lia.
    destruct (skipn k' expr) as [|b0 [|b1 [|b2 [|b3 rest]]]] eqn:E4; cbn [length] in SL';
      try (replace (N.of_nat (length expr) <? N.of_nat k' + 4) with true by (symmetry; apply N.ltb_lt; lia); reflexivity).
    replace (N.of_nat (length expr) <? N.of_nat k' + 4) with false by (symmetry; apply N.ltb_ge; lia).
    unfold seg_step. rewrite ObjectAt_is_translation. unfold ObjectAt_deref, rd.
    destruct (ObjectAt t scope) as [p|] eqn:OA; cbn [bind lift]; [|reflexivity].
    destruct (ObjectAt_some_deref _ _ _ OA) as [-> [o D]]. cbv zeta. rewrite gderef_tr, D. cbn [bind].
    change (f_Object_firstArgIndex (tr_obj o)) with (o_first o).
    assert (NB : forall i, nth_error expr (N.to_nat (N.of_nat k' + N.of_nat i)) = nth_error (b0 :: b1 :: b2 :: b3 :: rest) i).
    { intros i. rewrite <- E4, nth_error_skipn'. f_equal. lia. }
    destruct (sib_loop t expr (N.of_nat k') b0 b1 b2 b3 fuel) with (f := fuel) (ccs := false) (cns := false)
      (next := o_first o) (scope := scope) as [ccs' SLp].
    { change (2 ^ 62) with 4611686018427387904 in *. change (2 ^ 63) with 9223372036854775808. lia. }
    { lia. }
    { exact (NB 0%nat). } { exact (NB 1%nat). } { exact (NB 2%nat). } { exact (NB 3%nat). }
    rewrite SLp.
    destruct (find_sibling fuel t (o_first o) (b0, b1, b2, b3)) as [[c|]| |]; cbn [sib_expected bind lift]; try reflexivity.
    cbv iota beta zeta.
    assert (W : gw 64 (N.of_nat k' + 4) = N.of_nat (k' + 4)).
    { rewrite gw64_small; [lia|]. change (2 ^ 62) with 4611686018427387904 in *. unfold two64. lia. }
    rewrite W.
    apply IH; try lia.
    all: first [ rewrite <- skipn_skipn', E4; reflexivity | unfold k', l in *; cbn [length] in *; lia ].
Qed.

Theorem findRelative_fuelled : forall scope,
  go_aml_ObjectTree_findRelative fuel (tr_tree t) scope expr =
  lift (fun r => (tr_tree t, r)) (findRelative_go_f fuel false t scope expr).
Proof.
  intros scope. rewrite findRelative_unfold. unfold fr_main. cbv zeta. change (gw 64 0) with (N.of_nat 0).
  exact (outer_loop (length expr) expr 0%nat scope false fuel (le_n _) eq_refl (Nat.le_0_l _) ltac:(lia)).
Qed.
End Expr2.

(** ---- more fuel does not change an answer ---- *)
Lemma find_sibling_mono : forall (t : Tree) nm f f' next,
  (f <= f')%nat -> find_sibling f t next nm <> OutOfFuel -> find_sibling f' t next nm = find_sibling f t next nm.
Proof.
  intros t nm. induction f as [|f IH]; intros f' next Hle Hne; [cbn in Hne; congruence|].
  destruct f' as [|f']; [lia|]. cbn [find_sibling] in *.
  destruct (next =? InvalidIndex); [reflexivity|].
  destruct (ObjectAt_deref t next); cbn [bind] in *; try reflexivity.
  destruct (deref t a); cbn [bind] in *; try reflexivity.
  destruct (name_eqb nm (o_name a0)); [reflexivity|]. apply IH; [lia|assumption].
Qed.

Lemma findRelative_go_f_mono : forall (t : Tree) f f', (f <= f')%nat -> forall n l sk s,
  (length l <= n)%nat -> findRelative_go_f f sk t s l <> OutOfFuel ->
  findRelative_go_f f' sk t s l = findRelative_go_f f sk t s l.
Proof.
  intros t f f' Hle. induction n as [|n IH]; intros l sk s H Hne.
  - destruct l; [reflexivity|cbn in H; lia].
  - destruct l as [|b0 r0]; [reflexivity|]. cbn [findRelative_go_f] in *. cbn [length] in H.
    destruct (is_lead b0).
    + destruct r0 as [|b1 [|b2 [|b3 rest]]]; try reflexivity. cbn [length] in H.
      destruct (ObjectAt_deref t s); cbn [bind] in *; try reflexivity.
      destruct (rd t a o_first); cbn [bind] in *; try reflexivity.
      destruct (find_sibling f t a0 (b0, b1, b2, b3)) as [[c|]| |] eqn:FS; cbn [bind] in *; try congruence;
        rewrite (find_sibling_mono t (b0, b1, b2, b3) f f' a0 Hle) by (rewrite FS; discriminate);
        rewrite FS; cbn [bind]; try reflexivity.
      apply IH; [lia|assumption].
    + destruct (b0 =? 47).
      * destruct r0 as [|x r1]; [reflexivity|]. cbn [length] in H. apply IH; [lia|assumption].
      * apply IH; [lia|assumption].
Qed.

(** findRelative: the translation equals the model with the model's own fuel [chain_fuel t], for every fuel above it,
    whenever the model's walk ends ([findRelative_fuelled] above: exactly, when both run the sibling walks on the same
    fuel, GFuel where the model says OutOfFuel) *)
Theorem findRelative_is_translation : forall (t : Tree) (scope : N) (expr : list N) (fuel : nat),
  N.of_nat (length expr) < 2 ^ 62 -> (length expr + 5 < fuel)%nat -> (chain_fuel t <= fuel)%nat ->
  findRelative t scope expr <> OutOfFuel ->
  go_aml_ObjectTree_findRelative fuel (tr_tree t) scope expr = lift (fun r => (tr_tree t, r)) (findRelative t scope expr).
Proof.
  intros t scope expr fuel Hs Hf Hc Hne.
  rewrite (findRelative_fuelled expr Hs t fuel Hf scope).
  unfold findRelative in *. rewrite <- (findRelative_go_f_chain t (length expr) expr false scope (le_n _)) in *.
  now rewrite (findRelative_go_f_mono t (chain_fuel t) fuel Hc (length expr) expr false scope (le_n _) Hne).
Qed.
End F.
