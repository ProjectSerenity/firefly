(** Proofs about layers 1-2 (Aml/Stream.v, Aml/Lex.v):
    - [reader_safe]: under the reader invariant no lexer function panics or runs out of fuel, the
      invariant is preserved, and the result does not depend on any byte at an index >= pkgEnd
      (i.e. every byte read lies below pkgEnd <= len);
    - [lex_slices_inside]: every slice returned by parseString / parseNameString lies inside the table.
    (The round trips over the encodings of Aml/Grammar.v are in Aml/LexRoundtrip.v.) *)
From Coq Require Import NArith ZArith List Bool Lia.
From Coq Require Import ZifyBool ZifyN ZifyNat.
From FF Require Import Lib.Word Gen.Consts_device_acpi_aml Aml.Stream Aml.Lex.
Import ListNotations.
Local Open Scope N_scope.

(** ---- basic facts ---- *)
Lemma byte_at_Some d i : i < N.of_nat (length d) -> exists b, byte_at d i = Some b.
Proof.
  intros H. unfold byte_at. destruct (nth_error d (N.to_nat i)) eqn:E; eauto.
  apply nth_error_None in E. lia.
Qed.

Lemma byte_at_lt d i b : byte_at d i = Some b -> i < N.of_nat (length d).
Proof.
  unfold byte_at. intros H. assert (nth_error d (N.to_nat i) <> None) by congruence.
  apply nth_error_Some in H0. lia.
Qed.

Lemma init_reader_eq d h :
  init_reader d h = mkReader d (N.of_nat (length d)) (if N.of_nat (length d) <? h then N.of_nat (length d) else h) (N.of_nat (length d)).
Proof. unfold init_reader, setPkgEnd, setOffset. cbn [r_len r_data r_pkgEnd r_offset fst]. rewrite N.ltb_irrefl. reflexivity. Qed.

(** two readers that differ at most in the bytes at or beyond pkgEnd *)
Definition agree_below (n : N) (d d' : list N) : Prop := forall i, i < n -> byte_at d i = byte_at d' i.

Record sim (r r' : reader) : Prop := mkSim {
  sim_len : r_len r = r_len r';
  sim_off : r_offset r = r_offset r';
  sim_end : r_pkgEnd r = r_pkgEnd r';
  sim_data : agree_below (r_pkgEnd r) (r_data r) (r_data r')
}.

Lemma sim_refl r : sim r r.
Proof. constructor; auto. intros i _. reflexivity. Qed.

(** same data / len / pkgEnd: what the lexer functions may change is the offset only *)
Definition same_window (r r1 : reader) : Prop :=
  r_data r1 = r_data r /\ r_len r1 = r_len r /\ r_pkgEnd r1 = r_pkgEnd r.

Lemma same_window_refl r : same_window r r. Proof. repeat split. Qed.
Lemma same_window_trans a b c : same_window a b -> same_window b c -> same_window a c.
Proof. intros (A1 & A2 & A3) (B1 & B2 & B3). repeat split; congruence. Qed.

Lemma wf_same_window r r1 : reader_wf r -> same_window r r1 -> reader_wf r1.
Proof. intros (W1 & W2 & W3 & W4) (A & B & C). unfold reader_wf. rewrite A, B, C. auto. Qed.

Lemma same_window_set_offset r o : same_window r (set_offset_raw r o).
Proof. repeat split. Qed.
Lemma same_window_setOffset r o : same_window r (setOffset r o).
Proof. repeat split. Qed.

(** ---- readByte ---- *)
Lemma readByte_total r : reader_wf r ->
  (eof r = true /\ readByte r = Ok (None, r)) \/
  (eof r = false /\ exists b, byte_at (r_data r) (r_offset r) = Some b /\
                              readByte r = Ok (Some b, set_offset_raw r (r_offset r + 1)) /\ r_offset r < r_pkgEnd r).
Proof.
  intros (W1 & W2 & W3 & W4). unfold readByte, eof. destruct (r_pkgEnd r <=? r_offset r) eqn:E.
  - left. auto.
  - right. split; auto. apply N.leb_gt in E.
    destruct (byte_at_Some (r_data r) (r_offset r)) as [b Hb]; [lia|].
    exists b. rewrite Hb. repeat split; auto.
    rewrite w32_small; auto. unfold two32 in *. lia.
Qed.

Lemma readByte_sim r r' : reader_wf r -> sim r r' ->
  match readByte r, readByte r' with
  | Ok (b, r1), Ok (b', r1') => b = b' /\ sim r1 r1' /\ same_window r r1 /\ same_window r' r1'
  | _, _ => False
  end.
Proof.
  intros W S. destruct S as [SL SO SE SD].
  unfold readByte, eof. rewrite <- SE, <- SO.
  destruct (r_pkgEnd r <=? r_offset r) eqn:E.
  - repeat split; auto using same_window_refl.
  - apply N.leb_gt in E. rewrite <- (SD _ E).
    destruct W as (W1 & W2 & W3 & W4).
    destruct (byte_at_Some (r_data r) (r_offset r)) as [b Hb]; [lia|]. rewrite Hb.
    repeat split; cbn; auto.
Qed.

(** The generic shape of the statements: a lexer function [f] is safe when, under the invariant, it
    returns (no panic, no out-of-fuel), keeps data / len / pkgEnd, and gives equal results on readers that
    agree below pkgEnd. *)
Definition safe {A} (f : reader -> outcome (A * bool * reader)) : Prop :=
  forall r r', reader_wf r -> sim r r' ->
    match f r, f r' with
    | Ok (a, ok, r1), Ok (a', ok', r1') => a = a' /\ ok = ok' /\ sim r1 r1' /\ same_window r r1 /\ same_window r' r1'
    | _, _ => False
    end.

Lemma sim_setOffset r r' o : sim r r' -> sim (setOffset r o) (setOffset r' o).
Proof.
  intros [SL SO SE SD]. constructor; cbn; auto. unfold setOffset; cbn. rewrite SL. reflexivity.
Qed.

Lemma wf_sim_wf' r r' : reader_wf r -> sim r r' -> r_pkgEnd r' <= r_len r' /\ r_len r' < two32.
Proof. intros (W1 & W2 & W3 & W4) [SL SO SE SD]. rewrite <- SL, <- SE. auto. Qed.

(** stepping tactic: use [readByte_sim] on the next read of both sides *)
Tactic Notation "step_read" constr(W) constr(S) "as" ident(b) ident(r1) ident(r1') ident(HS) ident(HW) ident(HW') :=
  let H := fresh "H" in
  let b' := fresh "b'" in
  let E := fresh "E" in
  pose proof (readByte_sim _ _ W S) as H;
  match type of H with
  | match readByte ?r with _ => _ end =>
      destruct (readByte r) as [[b r1]| |]; [|contradiction|contradiction];
      match type of H with
      | match readByte ?r' with _ => _ end =>
          destruct (readByte r') as [[b' r1']| |]; [|contradiction|contradiction]
      end
  end;
  destruct H as (E & HS & HW & HW'); subst b'; cbn [bind].

(** close a goal of the shape  a = a' /\ ok = ok' /\ sim _ _ /\ same_window _ _ /\ same_window _ _ *)
Ltac sw := repeat (first [eassumption | apply same_window_refl | apply same_window_setOffset | apply same_window_set_offset
                         | eapply same_window_trans; [eassumption|] | eapply same_window_trans; [|apply same_window_setOffset]]).
Ltac fin := split; [reflexivity|split; [reflexivity|split; [auto using sim_setOffset|split; sw]]].

Lemma safe_parsePkgLength : safe parsePkgLength.
Proof.
  intros r r' W S. unfold parsePkgLength.
  assert (SO : r_offset r = r_offset r') by apply S.
  step_read W S as o r1 r1' S1 A1 A1'.
  destruct o as [lead|]; [|rewrite SO; fin].
  destruct (N.shiftr lead 6 =? 0); [fin|].
  assert (W1 : reader_wf r1) by eauto using wf_same_window.
  step_read W1 S1 as o r2 r2' S2 A2 A2'.
  destruct o as [b1|]; [|rewrite SO; fin].
  destruct (N.shiftr lead 6 =? 1); [fin|].
  assert (W2 : reader_wf r2) by eauto using wf_same_window.
  step_read W2 S2 as o r3 r3' S3 A3 A3'.
  destruct o as [b2|]; [|rewrite SO; fin].
  destruct (N.shiftr lead 6 =? 2); [fin|].
  assert (W3 : reader_wf r3) by eauto using wf_same_window.
  step_read W3 S3 as o r4 r4' S4 A4 A4'.
  destruct o as [b3|]; [|rewrite SO; fin].
  fin.
Qed.

Lemma safe_parseNum_go cnt : forall c acc r r', reader_wf r -> sim r r' ->
  match parseNum_go cnt c acc r, parseNum_go cnt c acc r' with
  | Ok (a, ok, r1), Ok (a', ok', r1') => a = a' /\ ok = ok' /\ sim r1 r1' /\ same_window r r1 /\ same_window r' r1'
  | _, _ => False
  end.
Proof.
  induction cnt as [|cnt IH]; intros c acc r r' W S; cbn [parseNum_go].
  - fin.
  - step_read W S as o r1 r1' S1 A1 A1'. destruct o as [b|].
    + assert (W1 : reader_wf r1) by eauto using wf_same_window.
      specialize (IH (c + 1) (N.lor acc (w64 (N.shiftl b (w8 (c * 8))))) _ _ W1 S1).
      destruct (parseNum_go cnt _ _ r1) as [[[a ok] r2]| |]; try contradiction.
      destruct (parseNum_go cnt _ _ r1') as [[[a' ok'] r2']| |]; try contradiction.
      destruct IH as (Ea & Eo & S2 & A2 & A2'). subst. fin.
    + fin.
Qed.

Lemma safe_parseNumConstant k : safe (parseNumConstant k).
Proof. intros r r' W S. apply safe_parseNum_go; auto. Qed.

(** dataPtr *)
Lemma dataPtr_sim r r' : reader_wf r -> sim r r' ->
  exists p, dataPtr r = Ok p /\ dataPtr r' = Ok p /\
            match p with Some q => q = r_offset r /\ q < r_pkgEnd r | None => r_pkgEnd r <= r_offset r end.
Proof.
  intros (W1 & W2 & W3 & W4) [SL SO SE SD]. unfold dataPtr, eof. rewrite <- SE, <- SO, <- SL.
  destruct (r_pkgEnd r <=? r_offset r) eqn:E.
  - exists None. repeat split; auto. apply N.leb_le in E. exact E.
  - apply N.leb_gt in E. assert (r_offset r <? r_len r = true) by (apply N.ltb_lt; lia). rewrite H.
    exists (Some (r_offset r)). repeat split; auto.
Qed.

(** remaining bytes of the window, as a nat measure for the loops *)
Definition remaining (r : reader) : nat := N.to_nat (r_pkgEnd r - r_offset r).

Lemma safe_parseString_go fuel : forall ptr len r r', reader_wf r -> sim r r' -> (remaining r < fuel)%nat ->
  match parseString_go fuel ptr len r, parseString_go fuel ptr len r' with
  | Ok (a, ok, r1), Ok (a', ok', r1') => a = a' /\ ok = ok' /\ sim r1 r1' /\ same_window r r1 /\ same_window r' r1'
  | _, _ => False
  end.
Proof.
  induction fuel as [|fuel IH]; intros ptr len r r' W S F; [lia|]. cbn [parseString_go].
  pose proof (readByte_total r W) as RT.
  step_read W S as o r1 r1' S1 A1 A1'. destruct o as [b|]; [|fin].
  destruct (b =? 0); [fin|].
  destruct ((1 <=? b) && (b <=? 127)); [|fin].
  assert (W1 : reader_wf r1) by eauto using wf_same_window.
  assert (F1 : (remaining r1 < fuel)%nat).
  { destruct RT as [(E & R)|(E & b' & Hb & R & Lt)]; [congruence|].
    inversion R; subst. unfold remaining in *. cbn. lia. }
  specialize (IH ptr (len + 1) _ _ W1 S1 F1).
  destruct (parseString_go fuel ptr (len + 1) r1) as [[[a ok] r2]| |]; try contradiction.
  destruct (parseString_go fuel ptr (len + 1) r1') as [[[a' ok'] r2']| |]; try contradiction.
  destruct IH as (Ea & Eo & S2 & A2 & A2'). subst. fin.
Qed.

Lemma remaining_lt_fuel r : reader_wf r -> (remaining r < stream_fuel r)%nat.
Proof. intros (W1 & W2 & W3 & W4). unfold remaining, stream_fuel. lia. Qed.

Lemma stream_fuel_sim r r' : reader_wf r -> reader_wf r' -> sim r r' -> stream_fuel r = stream_fuel r'.
Proof.
  intros (W1 & _) (W1' & _) [SL _ _ _]. unfold stream_fuel. f_equal. lia.
Qed.

(** [safe] needs the invariant of the second reader for the fuel; readers compared by [sim] have
    the same length, so we ask for both *)
Definition safe2 {A} (f : reader -> outcome (A * bool * reader)) : Prop :=
  forall r r', reader_wf r -> reader_wf r' -> sim r r' ->
    match f r, f r' with
    | Ok (a, ok, r1), Ok (a', ok', r1') => a = a' /\ ok = ok' /\ sim r1 r1' /\ same_window r r1 /\ same_window r' r1'
    | _, _ => False
    end.

Lemma safe_safe2 {A} (f : reader -> outcome (A * bool * reader)) : safe f -> safe2 f.
Proof. intros H r r' W _ S. apply H; auto. Qed.

Lemma safe2_parseString : safe2 parseString.
Proof.
  intros r r' W W' S. unfold parseString.
  destruct (dataPtr_sim r r' W S) as (p & E1 & E2 & _). rewrite E1, E2. cbn [bind].
  rewrite <- (stream_fuel_sim r r' W W' S).
  apply safe_parseString_go; auto using remaining_lt_fuel.
Qed.

Lemma peekByte_sim r r' : reader_wf r -> sim r r' ->
  exists b, peekByte r = Ok b /\ peekByte r' = Ok b /\
            (b = None <-> eof r = true) /\ (forall x, b = Some x -> byte_at (r_data r) (r_offset r) = Some x /\ r_offset r < r_pkgEnd r).
Proof.
  intros (W1 & W2 & W3 & W4) [SL SO SE SD]. unfold peekByte, eof. rewrite <- SE, <- SO.
  destruct (r_pkgEnd r <=? r_offset r) eqn:E.
  - exists None. repeat split; auto; congruence.
  - apply N.leb_gt in E. rewrite <- (SD _ E).
    destruct (byte_at_Some (r_data r) (r_offset r)) as [b Hb]; [lia|]. rewrite Hb.
    exists (Some b). repeat split; auto; try congruence; intros x Hx; inversion Hx; subst; auto.
Qed.

Lemma safe_skipPrefix_go fuel : forall r r', reader_wf r -> sim r r' -> (remaining r < fuel)%nat ->
  match skipPrefix_go fuel r, skipPrefix_go fuel r' with
  | Ok (ok, r1), Ok (ok', r1') => ok = ok' /\ sim r1 r1' /\ same_window r r1 /\ same_window r' r1' /\
                                  (ok = true -> eof r1 = false) /\ r_offset r <= r_offset r1
  | _, _ => False
  end.
Proof.
  induction fuel as [|fuel IH]; intros r r' W S F; [lia|]. cbn [skipPrefix_go].
  destruct (peekByte_sim r r' W S) as (b & E1 & E2 & Hn & Hs). rewrite E1, E2. cbn [bind].
  destruct b as [b|].
  2:{ split; [reflexivity|split; [exact S|split; [apply same_window_refl|split; [apply same_window_refl|split]]]];
      [discriminate|lia]. }
  destruct ((b =? 92) || (b =? 94)).
  2:{ split; [reflexivity|split; [exact S|split; [apply same_window_refl|split; [apply same_window_refl|split]]]]; [|lia].
      intros _. destruct (eof r) eqn:Ee; auto. destruct Hn as [_ Hn]. specialize (Hn eq_refl). discriminate. }
  pose proof (readByte_total r W) as RT.
  step_read W S as o r1 r1' S1 A1 A1'.
  assert (W1 : reader_wf r1) by eauto using wf_same_window.
  destruct RT as [(E & R)|(E & b' & Hb & R & Lt)].
  { destruct (Hs b eq_refl) as (_ & Lt). unfold eof in E. apply N.leb_le in E. lia. }
  inversion R; subst.
  assert (F1 : (remaining (set_offset_raw r (r_offset r + 1)) < fuel)%nat).
  { unfold remaining in *. cbn. lia. }
  specialize (IH _ _ W1 S1 F1).
  destruct (skipPrefix_go fuel (set_offset_raw r (r_offset r + 1))) as [[ok r2]| |]; try contradiction.
  destruct (skipPrefix_go fuel r1') as [[ok' r2']| |]; try contradiction.
  destruct IH as (Eo & S2 & A2 & A2' & Hok & Hle). cbn in Hle.
  split; [exact Eo|split; [exact S2|split; [sw|split; [sw|split]]]]; [exact Hok|clear -Hle; lia].
Qed.

(** ---- bytes are bytes ---- *)
Lemma byte_at_byte r i b : reader_wf r -> byte_at (r_data r) i = Some b -> b < 256.
Proof.
  intros (_ & _ & _ & W4) H. unfold byte_at in H. apply nth_error_In in H.
  rewrite Forall_forall in W4. apply W4. exact H.
Qed.

Lemma readByte_byte r b r1 : reader_wf r -> readByte r = Ok (Some b, r1) -> b < 256.
Proof.
  intros W H. destruct (readByte_total r W) as [(E & R)|(E & b' & Hb & R & Lt)]; rewrite R in H; inversion H; subst.
  eapply byte_at_byte; eauto.
Qed.

(** ---- parseNameString ---- *)
Lemma safe2_parseNameString : safe2 parseNameString.
Proof.
  intros r r' W W' S. unfold parseNameString.
  assert (SO : r_offset r = r_offset r') by apply S.
  destruct (dataPtr_sim r r' W S) as (p & E1 & E2 & _). rewrite E1, E2. cbn [bind].
  rewrite <- (stream_fuel_sim r r' W W' S).
  pose proof (safe_skipPrefix_go (stream_fuel r) r r' W S (remaining_lt_fuel r W)) as SK.
  destruct (skipPrefix_go (stream_fuel r) r) as [[ok r1]| |]; try contradiction.
  destruct (skipPrefix_go (stream_fuel r) r') as [[ok' r1']| |]; try contradiction.
  destruct SK as (Eo & S1 & A1 & A1' & Hok & Hle). subst ok'. cbn [bind].
  destruct ok; cbn [negb]; [|fin].
  assert (W1 : reader_wf r1) by eauto using wf_same_window.
  step_read W1 S1 as o r2 r2' S2 A2 A2'.
  assert (SO2 : r_offset r2 = r_offset r2') by apply S2.
  assert (SE2 : r_pkgEnd r2 = r_pkgEnd r2') by apply S2.
  rewrite <- SO, <- SO2, <- SE2.
  set (next := match o with Some b => b | None => 0 end).
  destruct (next =? 0); [fin|].
  destruct (next =? 46).
  { destruct (r_pkgEnd r2 <? w32 (r_offset r2 + w32 (aml_amlNameLen * 2))); [fin|].
    cbn [r_offset setOffset set_offset_raw]. rewrite (sim_len _ _ S2). fin. }
  destruct (next =? 47).
  { assert (W2 : reader_wf r2) by (eapply wf_same_window; [exact W1|exact A2]).
    step_read W2 S2 as o3 r3 r3' S3 A3 A3'.
    assert (SO3 : r_offset r3 = r_offset r3') by apply S3.
    assert (SE3 : r_pkgEnd r3 = r_pkgEnd r3') by apply S3.
    rewrite <- SO3, <- SE3.
    destruct o3 as [segCount|]; [|fin].
    destruct (segCount =? 0); [fin|].
    destruct (r_pkgEnd r3 <? w32 (r_offset r3 + w8 (segCount * aml_amlNameLen))); [fin|].
    cbn [r_offset setOffset set_offset_raw]. rewrite (sim_len _ _ S3). fin. }
  destruct (((next <? 65) || (90 <? next)) && negb (next =? 95)); [fin|].
  destruct (r_pkgEnd r2 <? w32 (r_offset r2 + w32 (aml_amlNameLen - 1))); [fin|].
  cbn [r_offset setOffset set_offset_raw]. rewrite (sim_len _ _ S2). fin.
Qed.

(** ---- nextOpcode / peekNextOpcode ---- *)
Lemma opcodeMap_len : length aml_opcodeMap = 256%nat. Proof. reflexivity. Qed.
Lemma extendedOpcodeMap_len : length aml_extendedOpcodeMap = 256%nat. Proof. reflexivity. Qed.

Lemma opcodeTableIndex_total op : op <= 0x1fe -> exists i, opcodeTableIndex op false = Some i.
Proof.
  intros H. unfold opcodeTableIndex, nthN.
  destruct (op <=? 255) eqn:E.
  - apply N.leb_le in E. destruct (nth_error aml_opcodeMap (N.to_nat op)) eqn:En; eauto.
    apply nth_error_None in En. rewrite opcodeMap_len in En. lia.
  - apply N.leb_gt in E. destruct (nth_error aml_extendedOpcodeMap (N.to_nat (op - 255))) eqn:En.
    + rewrite andb_false_r. eauto.
    + apply nth_error_None in En. rewrite extendedOpcodeMap_len in En. lia.
Qed.

Lemma safe_nextOpcode : safe nextOpcode.
Proof.
  intros r r' W S. unfold nextOpcode.
  pose proof (readByte_total r W) as RT.
  step_read W S as o r1 r1' S1 A1 A1'.
  destruct o as [next|]; [|fin].
  assert (Hb : next < 256).
  { destruct RT as [(E & R)|(E & b' & Hb & R & Lt)]; inversion R; subst. eapply byte_at_byte; eauto. }
  assert (W1 : reader_wf r1) by eauto using wf_same_window.
  destruct (next =? aml_extOpPrefix).
  - pose proof (readByte_total r1 W1) as RT1.
    step_read W1 S1 as o2 r2 r2' S2 A2 A2'.
    destruct o2 as [next2|].
    + assert (Hb2 : next2 < 256).
      { destruct RT1 as [(E & R)|(E & b' & Hb' & R & Lt)]; inversion R; subst. eapply byte_at_byte; eauto. }
      assert (Hop : w16 (255 + next2) <= 0x1fe) by (unfold w16, two16; lia).
      destruct (opcodeTableIndex_total _ Hop) as (i & Ei). rewrite Ei.
      rewrite <- (sim_off _ _ S2).
      destruct (i =? aml_badOpcode); fin.
    + unfold unreadByte. rewrite <- (sim_off _ _ S2).
      destruct (r_offset r2 =? 0); cbn [fst].
      * fin.
      * split; [reflexivity|split; [reflexivity|split; [|split]]].
        -- destruct S2 as [SL SO SE SD]. constructor; cbn; auto; try (rewrite SO; reflexivity).
        -- eapply same_window_trans; [exact A1|]. eapply same_window_trans; [exact A2|]. apply same_window_set_offset.
        -- eapply same_window_trans; [exact A1'|]. eapply same_window_trans; [exact A2'|]. apply same_window_set_offset.
  - assert (Hop : next <= 0x1fe) by lia.
    destruct (opcodeTableIndex_total _ Hop) as (i & Ei). rewrite Ei.
    rewrite <- (sim_off _ _ S1).
    destruct (i =? aml_badOpcode); fin.
Qed.

Lemma safe_peekNextOpcode : safe peekNextOpcode.
Proof.
  intros r r' W S. unfold peekNextOpcode.
  pose proof (safe_nextOpcode r r' W S) as H.
  destruct (nextOpcode r) as [[[op ok] r1]| |]; try contradiction.
  destruct (nextOpcode r') as [[[op' ok'] r1']| |]; try contradiction.
  destruct H as (Eo & Ek & S1 & A1 & A1'). subst. cbn [bind].
  rewrite <- (sim_off _ _ S). fin.
Qed.

(** ---- reader_safe: all of layer 2 at once ---- *)
Theorem reader_safe :
  safe2 parsePkgLength /\ (forall k, safe2 (parseNumConstant k)) /\ safe2 parseString /\ safe2 parseNameString /\
  safe2 nextOpcode /\ safe2 peekNextOpcode.
Proof.
  split; [apply safe_safe2, safe_parsePkgLength|].
  split; [intros k; apply safe_safe2, safe_parseNumConstant|].
  split; [apply safe2_parseString|].
  split; [apply safe2_parseNameString|].
  split; [apply safe_safe2, safe_nextOpcode|apply safe_safe2, safe_peekNextOpcode].
Qed.

(** ---- slices ---- *)
Lemma parseString_go_slice fuel : forall ptr len r s ok r1, reader_wf r ->
  parseString_go fuel ptr len r = Ok (s, ok, r1) ->
  s_ptr s = ptr /\ len <= s_len s /\ r_offset r <= r_offset r1 /\ s_len s - len <= r_offset r1 - r_offset r /\
  (r_offset r <= r_pkgEnd r -> r_offset r1 <= r_pkgEnd r).
Proof.
  induction fuel as [|fuel IH]; intros ptr len r s ok r1 W H; [discriminate|]. cbn [parseString_go] in H.
  destruct (readByte_total r W) as [(E & R)|(E & b & Hb & R & Lt)]; rewrite R in H; cbn [bind] in H.
  - inversion H; subst. cbn. repeat split; lia.
  - destruct (b =? 0). { inversion H; subst. cbn. repeat split; lia. }
    destruct ((1 <=? b) && (b <=? 127)).
    2:{ inversion H; subst. cbn. repeat split; lia. }
    assert (W1 : reader_wf (set_offset_raw r (r_offset r + 1))) by (eapply wf_same_window; eauto using same_window_set_offset).
    destruct (IH _ _ _ _ _ _ W1 H) as (P1 & P2 & P3 & P4 & P5). cbn in P3, P4, P5.
    repeat split; auto; try lia.
Qed.

Lemma parseString_slice r s ok r1 : reader_wf r -> parseString r = Ok (s, ok, r1) ->
  match s_ptr s with
  | Some p => p = r_offset r /\ p + s_len s <= r_pkgEnd r
  | None => s_len s = 0
  end /\ same_window r r1.
Proof.
  intros W H. unfold parseString in H.
  destruct (dataPtr_sim r r W (sim_refl r)) as (p & E1 & _ & Hp). rewrite E1 in H. cbn [bind] in H.
  pose proof (safe2_parseString r r W W (sim_refl r)) as SS. unfold parseString in SS. rewrite E1 in SS. cbn [bind] in SS.
  rewrite H in SS. destruct SS as (_ & _ & _ & A & _). split; auto.
  destruct (parseString_go_slice _ _ _ _ _ _ _ W H) as (P1 & P2 & P3 & P4 & P5).
  rewrite P1. destruct p as [q|].
  - destruct Hp as (-> & Lt). split; auto.
    assert (r_offset r1 <= r_pkgEnd r) by (apply P5; lia). lia.
  - (* at EOF the first read fails *)
    unfold stream_fuel in H. cbn [parseString_go] in H.
    destruct (readByte_total r W) as [(E & R)|(E & b & Hb & R & Lt)]; [|lia].
    rewrite R in H. cbn [bind] in H. inversion H; subst. reflexivity.
Qed.

Lemma skipPrefix_go_offset fuel r ok r1 : reader_wf r -> (remaining r < fuel)%nat -> skipPrefix_go fuel r = Ok (ok, r1) ->
  same_window r r1 /\ r_offset r <= r_offset r1 /\ (ok = true -> r_offset r1 < r_pkgEnd r1).
Proof.
  intros W F H. pose proof (safe_skipPrefix_go fuel r r W (sim_refl r) F) as SK. rewrite H in SK.
  destruct SK as (_ & _ & A & _ & Hok & Hle). split; [exact A|split; [exact Hle|]].
  intros ->. specialize (Hok eq_refl). unfold eof in Hok. apply N.leb_gt in Hok. exact Hok.
Qed.

Lemma setOffset_noclamp r o : o <= r_len r -> r_offset (setOffset r o) = o.
Proof. intros H. unfold setOffset. cbn. destruct (r_len r <? o) eqn:E; auto. apply N.ltb_lt in E. lia. Qed.

(** The end offset of a name is computed in uint32: for a table within 1 KiB of 4 GiB the addition can wrap
    around and the check against pkgEnd passes although the name does not fit.  [no_wrap] excludes such tables. *)
Definition no_wrap (r : reader) : Prop := r_len r + 1024 <= two32.

Lemma parseNameString_slice r s ok r1 : reader_wf r -> no_wrap r -> parseNameString r = Ok (s, ok, r1) ->
  match s_ptr s with
  | Some p => p = r_offset r /\ p + s_len s <= r_pkgEnd r
  | None => s_len s = 0
  end /\ same_window r r1.
Proof.
  intros W NW H. unfold no_wrap in NW.
  pose proof (safe2_parseNameString r r W W (sim_refl r)) as SS. rewrite H in SS. destruct SS as (_ & _ & _ & A & _).
  split; auto. clear A.
  unfold parseNameString in H.
  destruct (dataPtr_sim r r W (sim_refl r)) as (p & E1 & _ & Hp). rewrite E1 in H. cbn [bind] in H.
  destruct (skipPrefix_go (stream_fuel r) r) as [[ok1 r2]| |] eqn:ESK; try discriminate. cbn [bind] in H.
  destruct (skipPrefix_go_offset _ _ _ _ W (remaining_lt_fuel r W) ESK) as (A1 & L1 & Hok).
  destruct ok1; cbn [negb] in H.
  2:{ inversion H; subst. cbn. reflexivity. }
  specialize (Hok eq_refl).
  assert (W2 : reader_wf r2) by eauto using wf_same_window.
  destruct (readByte_total r2 W2) as [(E & R)|(E & b & Hb & R & Lt)]; rewrite R in H; cbn [bind] in H.
  { unfold eof in E. apply N.leb_le in E. lia. }
  destruct A1 as (D1 & Le1 & Pe1).
  destruct W as (Wa & Wb & Wc & Wd).
  assert (Hpp : match p with Some q => q = r_offset r /\ q < r_pkgEnd r | None => False end).
  { destruct p; auto. rewrite Pe1 in Hok. clear -Hok L1 Hp; lia. }
  destruct p as [q|]; [|contradiction]. destruct Hpp as (-> & Hq).
  remember (set_offset_raw r2 (r_offset r2 + 1)) as r3 eqn:Er3.
  assert (O3 : r_offset r3 = r_offset r2 + 1) by (rewrite Er3; reflexivity).
  assert (E3 : r_pkgEnd r3 = r_pkgEnd r) by (rewrite Er3; cbn; auto).
  assert (L3 : r_len r3 = r_len r) by (rewrite Er3; cbn; auto).
  assert (D3 : r_data r3 = r_data r) by (rewrite Er3; cbn; auto).
  assert (B32 : r_pkgEnd r < two32) by (clear -Wc Wb; lia).
  clear Er3.
  unfold two32 in *.
  destruct (b =? 0).
  { injection H as Hs _ _. rewrite <- Hs. cbn [s_ptr s_len]. split; auto. rewrite O3. unfold w32, two32. clear -Hok L1 Pe1; lia. }
  destruct (b =? 46).
  { destruct (r_pkgEnd r3 <? w32 (r_offset r3 + w32 (aml_amlNameLen * 2))) eqn:EE;
      injection H as Hs _ _; rewrite <- Hs; cbn [s_ptr s_len nil_slice]; [reflexivity|].
    apply N.ltb_ge in EE. split; auto.
    assert (Hsum : w32 (r_offset r3 + 8) = r_offset r3 + 8) by (apply w32_small; unfold two32; clear -O3 Hok Pe1 NW Wb; lia).
    change (w32 (aml_amlNameLen * 2)) with 8 in *. rewrite Hsum in EE.
    match goal with |- context [if ?c then _ else _] => destruct c eqn:EL end;
      [apply N.ltb_lt in EL|apply N.ltb_ge in EL]; change (w32 8) with 8 in *; rewrite ?Hsum in *; unfold w32, two32; lia. }
  destruct (b =? 47).
  { assert (W3 : reader_wf r3) by (unfold reader_wf; rewrite D3, L3, E3; auto).
    destruct (readByte_total r3 W3) as [(E' & R')|(E' & sc & Hsc & R' & Lt')]; rewrite R' in H; cbn [bind] in H.
    { injection H as Hs _ _. rewrite <- Hs. reflexivity. }
    destruct (sc =? 0). { injection H as Hs _ _. rewrite <- Hs. reflexivity. }
    remember (set_offset_raw r3 (r_offset r3 + 1)) as r4 eqn:Er4.
    assert (O4 : r_offset r4 = r_offset r2 + 2) by (rewrite Er4; cbn; clear -O3; lia).
    assert (E4 : r_pkgEnd r4 = r_pkgEnd r) by (rewrite Er4; cbn; auto).
    assert (L4 : r_len r4 = r_len r) by (rewrite Er4; cbn; auto).
    clear Er4.
    destruct (r_pkgEnd r4 <? w32 (r_offset r4 + w8 (sc * aml_amlNameLen))) eqn:EE;
      injection H as Hs _ _; rewrite <- Hs; cbn [s_ptr s_len nil_slice]; [reflexivity|].
    apply N.ltb_ge in EE. split; auto.
    assert (Hx : w8 (sc * aml_amlNameLen) < 256) by (unfold w8, two8; apply N.mod_lt; discriminate).
    remember (w8 (sc * aml_amlNameLen)) as x eqn:Ex. clear Ex.
    assert (Hsum : w32 (r_offset r4 + x) = r_offset r4 + x) by (unfold w32, two32; apply N.mod_small; clear -Hx O4 Hok Pe1 NW Wb; lia).
    rewrite Hsum in *.
    match goal with |- context [if ?c then _ else _] => destruct c eqn:EL end;
      [apply N.ltb_lt in EL|apply N.ltb_ge in EL]; unfold w32, two32; lia. }
  destruct (((b <? 65) || (90 <? b)) && negb (b =? 95)). { injection H as Hs _ _. rewrite <- Hs. reflexivity. }
  destruct (r_pkgEnd r3 <? w32 (r_offset r3 + w32 (aml_amlNameLen - 1))) eqn:EE;
    injection H as Hs _ _; rewrite <- Hs; cbn [s_ptr s_len nil_slice]; [reflexivity|].
  apply N.ltb_ge in EE. split; auto.
  assert (Hsum : w32 (r_offset r3 + 3) = r_offset r3 + 3) by (apply w32_small; unfold two32; clear -O3 Hok Pe1 NW Wb; lia).
  change (w32 (aml_amlNameLen - 1)) with 3 in *. rewrite Hsum in EE.
  match goal with |- context [if ?c then _ else _] => destruct c eqn:EL end;
    [apply N.ltb_lt in EL|apply N.ltb_ge in EL]; change (w32 3) with 3 in *; rewrite ?Hsum in *; unfold w32, two32; lia.
Qed.

(** every slice returned by parseString / parseNameString lies inside the table (in fact inside the
    current package, starting at the offset at which the function was called) *)
Theorem lex_slices_inside : forall r s ok r1, reader_wf r -> no_wrap r ->
  parseString r = Ok (s, ok, r1) \/ parseNameString r = Ok (s, ok, r1) ->
  slice_inside (r_len r) s /\ slice_inside (r_pkgEnd r) s /\
  (forall p, s_ptr s = Some p -> p = r_offset r).
Proof.
  intros r s ok r1 W NW H.
  assert (P : match s_ptr s with
              | Some p => p = r_offset r /\ p + s_len s <= r_pkgEnd r
              | None => s_len s = 0 end).
  { destruct H as [H|H]; [apply (parseString_slice _ _ _ _ W H)|apply (parseNameString_slice _ _ _ _ W NW H)]. }
  destruct W as (_ & Wb & _). unfold slice_inside.
  destruct (s_ptr s) as [p|].
  - destruct P as (-> & Le). split; [|split].
    + right. exists (r_offset r). split; auto. lia.
    + right. exists (r_offset r). split; auto.
    + intros q Hq. inversion Hq. reflexivity.
  - split; [left; exact P|split; [left; exact P|intros q Hq; discriminate]].
Qed.
