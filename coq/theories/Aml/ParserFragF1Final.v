(** C11 (fragments F1 and F2): the recognisers [in_fragment_F1] / [in_fragment_F2] of Name declarations, (nested) Device blocks and
    Method declarations with their soundness [f2_item_ast] ([parse_encode_F1] / [_F2] are in ParserFragF3Final.v); and, for
    all fragments, the abstract syntax an item stands for ([item_ast]) with its encoding, well-formedness and namespace entries,
    proved over the items of F9 (ParserFragF9Final.v) and read here through [emb]; and what a recogniser of items has to
    deliver ([sound]).

    F1: ONE table whose items are [Name(SEG, integer constant)] (as in F0) or [Device(SEG){ items }] with a
    single-segment name (no root / parent prefix, not written as a MultiNamePath), nested to any depth, any PkgLength
    width admissible for the block; the encoded table is smaller than 256 MiB.  Productions: DefName, DefDevice
    (PkgLength in 1-4 bytes, NameString = NameSeg, TermList of DefName / DefDevice), DataRefObject = ConstObj |
    ByteConst | WordConst | DWordConst | QWordConst.
    F2 = F1 + [Method(SEG, flags){ items }]: a Method with a single-segment name whose body holds declarations of the
    fragment only (Name / Device / Method, possibly none); productions: DefMethod (PkgLength, NameString = NameSeg,
    MethodFlags, TermList of DefName / DefDevice / DefMethod). *)
From Coq Require Import NArith ZArith Arith List Bool Lia Permutation.
From Coq Require Import ZifyBool ZifyN ZifyNat.
From FF Require Import Lib.Word Gen.Consts_device_acpi_aml Gen.Consts_aml_tree Aml.Stream Aml.Lex Aml.LexProofs
  Aml.Tree Aml.TreeSpec Aml.Parser Aml.Grammar Aml.LexRoundtrip
  Aml.ParserFragBase Aml.ParserFragFirst Aml.ParserFragF0
  Aml.ParserFragArgs Aml.ParserFragF1 Aml.ParserFragF1First Aml.View Aml.ParserFragView Aml.ParserFragF0Final Aml.ParserFragF1View Aml.WfProgram.
From FF Require Aml.ParserFragF9Final Aml.ParserFragF9View.
Import ListNotations.
Local Open Scope N_scope.

Definition blk_ast (bk : bkind) (k : N) (nm : namestr) (fa : list N) (b : list ast) : ast :=
  match bk with
  | BDev => ADevice k nm b
  | BTZ => AThermal k nm b
  | BProc => AProcessor k nm (nth 0 fa 0) (nth 1 fa 0) (nth 2 fa 0) b
  | BPwr => APowerRes k nm (nth 0 fa 0) (nth 1 fa 0) b
  | BMeth => AMethod k nm (nth 0 fa 0) b
  end.

Definition cst_ast (d : decl) : ast := AConst (d_op d) (d_v d).
Definition targ_ast (a : targ) : ast := match a with TInt d => cst_ast d | TStr b => AStr b end.
Definition leaf_ast (lk : lkind) (nm : namestr) (fa : list N) (ta : list targ) : ast :=
  match lk with
  | LMutex => AMutex nm (nth 0 fa 0)
  | LEvent => AEvent nm
  | LOpReg => AOpRegion nm (nth 0 fa 0) (targ_ast (nth 0 ta (TInt (mkDecl 0 0 0)))) (targ_ast (nth 1 ta (TInt (mkDecl 0 0 0))))
  | LName => AName nm (targ_ast (nth 0 ta (TInt (mkDecl 0 0 0))))
  end.

Fixpoint pel_ast (x : pel) : ast :=
  match x with PLeaf a => targ_ast a | PSub k n es => APackage k n (map pel_ast es) end.

Fixpoint item_ast (it : item) : ast :=
  match it with
  | IName d => decl_ast d
  | IBlk bk k seg fa body => blk_ast bk k (seg_name seg) fa (map item_ast body)
  | ILeaf lk seg fa ta => leaf_ast lk (seg_name seg) fa ta
  | IPkg seg k n elems => AName (seg_name seg) (APackage k n (map pel_ast elems))
  end.

(** the right number of fixed arguments everywhere *)
Fixpoint shape_ok (it : item) : bool :=
  match it with
  | IName _ => true
  | IBlk bk _ _ fa body => Nat.eqb (length fa) (length (bk_ws bk)) && forallb shape_ok body
  | ILeaf lk _ fa ta => Nat.eqb (length fa) (length (lk_ws lk)) && Nat.eqb (length ta) (lk_nt lk)
  | IPkg _ _ _ _ => true
  end.

Definition simple_name (nm : namestr) : option N :=
  match n_segs nm with
  | [seg] => if negb (n_root nm) && (n_carets nm =? 0) && negb (n_multi nm) then Some seg else None
  | _ => None
  end.

Fixpoint f2_item (a : ast) : option item :=
  match a with
  | AName nm (AConst op v) => match simple_name nm with Some seg => Some (IName (mkDecl seg op v)) | None => None end
  | ADevice k nm body =>
      match simple_name nm with
      | Some seg =>
          match (fix go (l : list ast) : option (list item) :=
                   match l with
                   | [] => Some []
                   | x :: t => match f2_item x, go t with Some i, Some r => Some (i :: r) | _, _ => None end
                   end) body with
          | Some b => Some (IDev k seg b)
          | None => None
          end
      | None => None
      end
  | AMethod k nm fl body =>
      match simple_name nm with
      | Some seg =>
          match (fix go (l : list ast) : option (list item) :=
                   match l with
                   | [] => Some []
                   | x :: t => match f2_item x, go t with Some i, Some r => Some (i :: r) | _, _ => None end
                   end) body with
          | Some b => Some (IMeth k seg fl b)
          | None => None
          end
      | None => None
      end
  | _ => None
  end.

Fixpoint f2_items (l : list ast) : option (list item) :=
  match l with
  | [] => Some []
  | x :: t => match f2_item x, f2_items t with Some i, Some r => Some (i :: r) | _, _ => None end
  end.

Definition in_fragment_F2 (tables : list (list ast)) : bool :=
  match tables with
  | [p] => match f2_items p with Some _ => lenN (encode_table p) <? 0x10000000 | None => false end
  | _ => false
  end.

(** no Method anywhere *)
Fixpoint no_meth (it : item) : bool :=
  match it with
  | IName _ => true
  | IBlk bk _ _ _ body => match bk with BMeth => false | _ => forallb no_meth body end
  | ILeaf _ _ _ _ => true
  | IPkg _ _ _ _ => true
  end.

Definition in_fragment_F1 (tables : list (list ast)) : bool :=
  match tables with
  | [p] => match f2_items p with Some its => forallb no_meth its && (lenN (encode_table p) <? 0x10000000) | None => false end
  | _ => false
  end.

Lemma simple_name_eq nm seg : simple_name nm = Some seg -> nm = seg_name seg.
Proof.
  unfold simple_name. destruct nm as [root carets multi segs]. cbn [n_segs n_root n_carets n_multi].
  destruct segs as [|s [|s2 segs]]; try discriminate.
  destruct root; cbn [negb andb]; try discriminate.
  destruct (N.eqb_spec carets 0) as [->|]; cbn [andb]; try discriminate.
  destruct multi; cbn [negb]; try discriminate.
  intros E; inversion E. reflexivity.
Qed.

Definition sound (f : ast -> option item) (a : ast) : Prop := forall it, f a = Some it -> a = item_ast it /\ shape_ok it = true.

Lemma items_sound f l its : (forall a, In a l -> sound f a) -> omap f l = Some its -> l = map item_ast its /\ forallb shape_ok its = true.
Proof. apply omap_sound. Qed.

Lemma blk_sound f bk k nm fa body it :
  length fa = length (bk_ws bk) -> (forall x, In x body -> sound f x) ->
  match simple_name nm, omap f body with Some seg, Some b => Some (IBlk bk k seg fa b) | _, _ => None end = Some it ->
  blk_ast bk k nm fa body = item_ast it /\ shape_ok it = true.
Proof.
  intros Hfa Hb. destruct (simple_name nm) as [seg|] eqn:En; [|discriminate]. apply simple_name_eq in En. subst nm.
  destruct (omap f body) as [b|] eqn:Eb; [|discriminate]. intros E; inversion E; subst it.
  destruct (items_sound f body b Hb Eb) as (-> & Hs). split; [reflexivity|].
  cbn [shape_ok]. rewrite Hfa, Nat.eqb_refl. exact Hs.
Qed.

Lemma name_sound {X} nm (mk : N -> X) x :
  match simple_name nm with Some seg => Some (mk seg) | None => None end = Some x -> exists seg, nm = seg_name seg /\ x = mk seg.
Proof.
  destruct (simple_name nm) as [seg|] eqn:En; [|discriminate]. intros E; inversion E. exists seg. split; [apply simple_name_eq; exact En|reflexivity].
Qed.

Lemma f2_item_ast : forall a, sound f2_item a.
Proof.
  induction a as [a IH] using ast_body_ind. intros it. destruct a; try discriminate; cbn [f2_item body_of] in *.
  1-2: apply (blk_sound f2_item); [reflexivity|exact IH].
  destruct a; try discriminate. intros E. destruct (name_sound _ _ _ E) as (seg & -> & ->). split; reflexivity.
Qed.

Lemma f2_items_ast p its : f2_items p = Some its -> p = map item_ast its /\ forallb shape_ok its = true.
Proof. apply (items_sound f2_item). intros a _. apply f2_item_ast. Qed.

(** ---- encoding ---- *)
(** ---- the items embed into those of F9 (one constructor more, ParserFragF9Final.v), where the encoding, the
    well-formedness and the namespace entries of an item are proved; [emb] commutes with everything on this side ---- *)
Lemma targ_ast_emb a : ParserFragF9Final.targ_ast (emb_targ a) = targ_ast a.
Proof. destruct a; reflexivity. Qed.

Lemma pel_ast_emb e : ParserFragF9Final.pel_ast (emb_pel e) = pel_ast e.
Proof.
  induction e as [a|k n es IH] using pel_ind'; cbn [emb_pel ParserFragF9Final.pel_ast pel_ast]; [apply targ_ast_emb|].
  rewrite map_map, (map_ext_Forall _ _ IH). reflexivity.
Qed.

Lemma item_ast_emb it : ParserFragF9Final.item_ast (emb it) = item_ast it.
Proof.
  induction it as [d|bk k seg fa body IH|lk seg fa ta|seg k n elems] using item_ind'; cbn [emb ParserFragF9Final.item_ast item_ast]; [reflexivity| | |].
  - rewrite map_map, (map_ext_Forall _ _ IH). reflexivity.
  - destruct lk; try reflexivity; destruct ta as [|c0 [|c1 ta]]; cbn [ParserFragF9Final.leaf_ast leaf_ast map nth]; rewrite ?targ_ast_emb; reflexivity.
  - rewrite map_map, (map_ext _ _ pel_ast_emb). reflexivity.
Qed.

Lemma shape_ok_emb it : ParserFragF9Final.shape_ok (emb it) = shape_ok it.
Proof.
  induction it as [d|bk k seg fa body IH|lk seg fa ta|seg k n elems] using item_ind'; cbn [emb ParserFragF9Final.shape_ok shape_ok]; try reflexivity.
  - rewrite (forallb_emb emb _ shape_ok body IH). reflexivity.
  - rewrite map_length. reflexivity.
Qed.

Lemma sentry_emb inm it : forall p, ParserFragF9View.sentry inm p (emb it) = sentry p it.
Proof.
  revert inm. induction it as [d|bk k seg fa body IH|lk seg fa ta|seg k n elems] using item_ind'; intros inm p; cbn [emb ParserFragF9View.sentry sentry]; [reflexivity| | |].
  - change (flat_map ParserFragF9View.stmt_of (map emb body)) with (ParserFragF9View.vstmts (map emb body)). rewrite vstmts_emb.
    rewrite (flat_map_emb emb _ (sentry (p ++ [seg])) body) by (revert IH; apply Forall_impl; auto).
    destruct (bk_op bk =? aml_pOpMethod); cbn [concat]; rewrite app_nil_r; reflexivity.
  - unfold ParserFragF9View.leaf_entry, leaf_entry. rewrite (flat_map_emb _ _ _ _ (all_Forall _ ta targ_tokens_emb)). reflexivity.
  - unfold ParserFragF9View.pkg_entry, pkg_entry, lenN. rewrite map_length, (flat_map_emb _ _ _ _ (all_Forall _ elems pel_tokens_emb)). reflexivity.
Qed.

Lemma encode_targs elems : flat_map encode (map targ_ast elems) = enc_ta elems.
Proof. unfold enc_ta. induction elems as [|a r IH]; [reflexivity|]. cbn [map flat_map]. rewrite IH. destruct a; reflexivity. Qed.

Lemma encode_item : forall it, shape_ok it = true -> encode (item_ast it) = enc_item it.
Proof.
  intros it Hs. rewrite <- item_ast_emb, <- enc_item_emb. apply ParserFragF9Final.encode_item. rewrite shape_ok_emb. exact Hs.
Qed.

Lemma encode_items its : forallb shape_ok its = true -> encode_table (map item_ast its) = enc_items its.
Proof.
  unfold encode_table, enc_items. induction its as [|x t IH]; intros Hs; [reflexivity|]. cbn [forallb] in Hs. apply andb_prop in Hs. destruct Hs as [Hx Ht].
  cbn [map flat_map]. rewrite (encode_item x Hx), (IH Ht). reflexivity.
Qed.

(** ---- well-formedness ---- *)
(** the boolean tests of the payload side are those of the specification (Aml/WfProgram.v), so [wf_ast] hands them over as they are *)
Lemma is_constb_eq : is_constb = is_const_op. Proof. reflexivity. Qed.
Lemma lead_okb_eq : lead_okb = lead_charb. Proof. reflexivity. Qed.
Lemma pkglen_okb_eq : pkglen_okb = kw_ok. Proof. reflexivity. Qed.

Lemma wf_item e ms : forall it scope, shape_ok it = true -> wf_ast e ms scope (item_ast it) = true -> item_okb it = true.
Proof.
  intros it scope Hs Hw. rewrite <- item_okb_emb. apply (ParserFragF9Final.wf_item e ms (emb it) scope); [rewrite shape_ok_emb|rewrite item_ast_emb]; assumption.
Qed.

Lemma wf_items e ms its : forallb shape_ok its = true -> forallb (wf_ast e ms []) (map item_ast its) = true -> forallb item_okb its = true.
Proof.
  induction its as [|x t IH]; intros Hs Hw; [reflexivity|]. cbn [map forallb] in Hs, Hw |- *. apply andb_prop in Hw. destruct Hw as [Hx Ht].
  apply andb_prop in Hs. destruct Hs as [Hsx Hst].
  rewrite (wf_item e ms x [] Hsx Hx), (IH Hst Ht). reflexivity.
Qed.

(** ---- the specification side ---- *)
Lemma entries_item e : forall it scope, shape_ok it = true -> entries e scope (item_ast it) = sentry scope it.
Proof.
  intros it scope Hs. rewrite <- item_ast_emb, <- (sentry_emb false). apply ParserFragF9Final.entries_item. rewrite shape_ok_emb. exact Hs.
Qed.

Lemma entries_items e its : forallb shape_ok its = true -> flat_map (entries e []) (map item_ast its) = sentries [] its.
Proof.
  unfold sentries. induction its as [|x t IH]; intros Hs; [reflexivity|]. cbn [forallb] in Hs. apply andb_prop in Hs. destruct Hs as [Hx Ht].
  cbn [map flat_map]. rewrite (entries_item e x [] Hx), (IH Ht). reflexivity.
Qed.

(** F1 is the Method-free part of F2 *)
Lemma in_F1_F2 tables : in_fragment_F1 tables = true -> in_fragment_F2 tables = true.
Proof.
  unfold in_fragment_F1, in_fragment_F2. destruct tables as [|p [|p2 rest]]; try discriminate.
  destruct (f2_items p) as [its|]; [|discriminate]. intros H. apply andb_prop in H. apply H.
Qed.
