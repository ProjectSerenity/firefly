(** What the passes that work on the tree only have in common - their invariant [TI], reading the
    bytes of a slice, and the subtree sizes that measure the fuel of the tree walks. *)
From Coq Require Import NArith Arith List Bool Lia.
From Coq Require Import ZifyBool ZifyN ZifyNat.
From FF Require Import Lib.Word Gen.Consts_device_acpi_aml Gen.Consts_aml_tree Aml.Stream Aml.Lex Aml.LexProofs
  Aml.Tree Aml.Parser Aml.ParserProofs Aml.TreeSpec Aml.TreeProofs Aml.TreeProofsOps Aml.TreeProofsFind
  Aml.ParserTotalTree Aml.ParserTotalTree2 Aml.ParserTotalLex Aml.ParserTotalTable Aml.ParserTotalBase Aml.ParserTotalLeaf.
Import ListNotations.
Local Open Scope N_scope.

(** ---- the invariant of the passes that work on the tree only ---- *)
Record TI (s : pstate) (g : ghost) : Prop := mkTI {
  ti_R : R (p_tree s) g;
  ti_info : info_valid (p_tree s);
  ti_pool : pool_ok (p_tables s) (p_tree s)
}.

Lemma pool_ok_get tbls (t : T) i o : pool_ok tbls t -> tget t i = Some o -> value_ok tbls (o_value o).
Proof.
  intros Hp Hg. unfold pool_ok in Hp. rewrite Forall_forall in Hp. apply Hp. eapply nth_error_In. exact Hg.
Qed.

Lemma pool_ok_pframe tbls (t t' : T) : pool_ok tbls t -> pframe t t' -> pool_ok tbls t'.
Proof.
  intros Hp Hf. unfold pool_ok. rewrite Forall_forall. intros o' Hin.
  destruct (In_nth_error _ _ Hin) as (n & Hn).
  assert (Hg : tget t' (N.of_nat n) = Some o') by (unfold TreeSpec.get; rewrite Nat2N.id; exact Hn).
  destruct (pframe_inv _ _ _ _ Hf Hg) as (o & Ho & _ & _ & _ & _ & _ & _ & _ & Ev).
  rewrite Ev. eapply pool_ok_get; eauto.
Qed.

Lemma pool_ok_tset tbls (t : T) p f : pool_ok tbls t -> (forall o, o_value (f o) = o_value o) -> pool_ok tbls (tset t p f).
Proof.
  intros Hp Hf. unfold pool_ok, tset. cbn [t_pool]. apply list_upd_Forall; auto.
  intros o Ho. rewrite Hf. exact Ho.
Qed.

Lemma TI_pframe s g t' g' : TI s g -> R t' g' -> pframe (p_tree s) t' -> TI (with_tree s t') g'.
Proof.
  intros [A B C] HR Hf. constructor; auto.
  - eapply info_valid_pframe; eauto.
  - eapply pool_ok_pframe; eauto.
Qed.

Lemma TI_live_get s g p : TI s g -> glive g p -> exists o, tget (p_tree s) p = Some o /\ o_opcode o <> opFreed.
Proof. intros H Hl. apply (R_live_glive _ _ (ti_R _ _ H)) in Hl. exact Hl. Qed.

Lemma TI_ObjectAt s g p : TI s g -> glive g p -> ObjectAt (p_tree s) p = Some p.
Proof.
  intros H Hl. destruct (TI_live_get _ _ _ H Hl) as (o & Hg & Ho).
  eapply ObjectAt_live; eauto. apply (R_bound _ _ (ti_R _ _ H)).
Qed.

Lemma In_remove1_neq (x y : N) l : y <> x -> (In y (remove1 x l) <-> In y l).
Proof.
  intros Hne. induction l as [|z l IH]; cbn [remove1]; [tauto|].
  destruct (N.eqb_spec z x) as [->|Hzx]; cbn [In]; [split; [auto|intros [E|H]; [congruence|auto]]|rewrite IH; tauto].
Qed.

Lemma last_split (l : list N) d : l <> [] -> exists l', l = l' ++ [last l d].
Proof. intros H. exists (removelast l). apply app_removelast_last. exact H. Qed.

(** ---- bytesOf ---- *)
Lemma take_bytes_ok d : forall len start, (start + len <= length d)%nat ->
  exists l, take_bytes d start len = Some l /\ length l = len.
Proof.
  induction len as [|len IH]; intros start H; cbn [take_bytes]; [exists []; auto|].
  destruct (nth_error d start) as [b|] eqn:E; [|apply nth_error_None in E; lia].
  destruct (IH (S start)) as (l & El & Hl); [lia|]. rewrite El. exists (b :: l). split; auto. cbn. lia.
Qed.

Lemma slice_bytes_ok s tbl sl : slice_ok (p_tables s) tbl sl ->
  exists l, slice_bytes s tbl sl = Ok l /\ length l = N.to_nat (s_len sl).
Proof.
  intros (d & Hd & Hin). unfold slice_bytes. destruct (N.eqb_spec (s_len sl) 0) as [E|E].
  - exists []. rewrite E. auto.
  - destruct Hin as [Hz|(p & Hp & Hle)]; [contradiction|]. rewrite Hp, Hd.
    destruct (take_bytes_ok d (N.to_nat (s_len sl)) (N.to_nat p)) as (l & El & Hl); [lia|].
    rewrite El. eauto.
Qed.

(** a rearrangement inside the subtree of [p] as seen later is one inside the set fixed at the start *)
Lemma reloc_chain g g1 g2 (S : N -> Prop) p :
  closed g S -> S p -> reloc g g1 S -> reloc g1 g2 (desc g1 p) -> reloc g g2 S.
Proof.
  intros Hc Hp H1 H2. eapply reloc_trans; [exact H1|].
  eapply reloc_lift; [|exact H2]. intros y Hy. eapply desc_in_closed; [eapply reloc_closed; eauto|exact Hp|exact Hy].
Qed.

Lemma hd_nonempty (l : list N) d x : hd d l = x -> x <> d -> exists l', l = x :: l'.
Proof. destruct l as [|y l]; cbn [hd]; intros E Hne; [congruence|]. subst. eauto. Qed.

(** the opcode-table rows of the two leading arguments of a Method: a name path (no arguments) and a byte constant *)
Definition npIdx : N := match opcodeTableIndex aml_pOpIntNamePath true with Some i => i | None => 0 end.
Definition bpIdx : N := match opcodeTableIndex aml_pOpBytePrefix true with Some i => i | None => 0 end.

(** ---- subtree sizes over the forest, the measure of the fuel of the tree walks ---- *)
Inductive sz (g : ghost) : N -> nat -> Prop :=
| sz_node x n : szl g (kids g x) n -> sz g x (S n)
with szl (g : ghost) : list N -> nat -> Prop :=
| szl_nil : szl g [] 0
| szl_cons c l n m : sz g c n -> szl g l m -> szl g (c :: l) (n + m).

Scheme sz_mut := Minimality for sz Sort Prop
  with szl_mut := Minimality for szl Sort Prop.
Combined Scheme sz_szl_ind from sz_mut, szl_mut.

Lemma desc_trans g a b c : desc g a b -> desc g b c -> desc g a c.
Proof. intros H1 H2. induction H2 as [|p q H2 IH Hin]; [exact H1|eapply desc_step; eauto]. Qed.

Lemma sz_pos g x n : sz g x n -> (1 <= n)%nat.
Proof. intros H. inversion H. lia. Qed.

Lemma szl_app g l1 : forall l2 n, szl g (l1 ++ l2) n -> exists a b, szl g l1 a /\ szl g l2 b /\ n = (a + b)%nat.
Proof.
  induction l1 as [|c l1 IH]; intros l2 n H; cbn [app] in H.
  - exists 0%nat, n. split; [constructor|auto].
  - inversion H as [|c' l' n1 m1 Hc Hl]; subst. destruct (IH l2 m1 Hl) as (a & b & A & B & E).
    exists (n1 + a)%nat, b. split; [constructor; auto|]. split; [exact B|lia].
Qed.

Lemma szl_one g c b : szl g [c] b -> sz g c b.
Proof. intros H. inversion H as [|c' l' n m Hc Hl]; subst. inversion Hl; subst. rewrite Nat.add_0_r. exact Hc. Qed.

Lemma szl_snoc g l c m : szl g (l ++ [c]) m -> exists a n, szl g l a /\ sz g c n /\ m = (a + n)%nat.
Proof.
  intros Hm. destruct (szl_app g l [c] m Hm) as (a & b & A & B & E). exists a, b. split; [exact A|]. split; [apply szl_one; exact B|exact E].
Qed.

(** the size of a subtree depends on the child lists inside it only *)
Lemma sz_same g g' :
  (forall x n, sz g x n -> (forall y, desc g x y -> kids g' y = kids g y) -> sz g' x n) /\
  (forall l n, szl g l n -> (forall c y, In c l -> desc g c y -> kids g' y = kids g y) -> szl g' l n).
Proof.
  apply sz_szl_ind.
  - intros x n _ IH Hk. constructor. rewrite (Hk x (desc_refl g x)). apply IH.
    intros c y Hc Hd. apply Hk. eapply desc_trans; [eapply desc_step; [apply desc_refl|exact Hc]|exact Hd].
  - intros _. constructor.
  - intros c l n m _ IH1 _ IH2 Hk. constructor.
    + apply IH1. intros y Hd. apply (Hk c y); [left; reflexivity|exact Hd].
    + apply IH2. intros c' y Hc' Hd. apply (Hk c' y); [right; exact Hc'|exact Hd].
Qed.

(** "the fuel does not suffice": the measures of the walk from an object / over the first children [l] of an object whose last
    children [r] are done *)
Definition PO (g : ghost) (x : N) (fuel : nat) : Prop := forall n, sz g x n -> (fuel < 2 * n)%nat.
Definition PL (g : ghost) (l r : list N) (fuel : nat) : Prop := forall m, szl g l m -> (fuel < 2 * m + length r + 1)%nat.

Lemma desc_chain2 (t : T) g a b y : R t g -> desc g a y -> desc g b y -> desc g a b \/ desc g b a.
Proof.
  intros HR Ha. revert b. induction Ha as [|p c Ha IH Hin]; intros b Hb.
  - right. exact Hb.
  - inversion Hb as [|p' c' Hb' Hin']; subst.
    + left. eapply desc_step; eauto.
    + assert (p' = p) by (eapply (R_parent_unique _ _ HR); eauto). subst p'. apply IH. exact Hb'.
Qed.

Lemma siblings_disjoint2 (t : T) g p a b y : R t g -> In a (kids g p) -> In b (kids g p) -> desc g a y -> desc g b y -> a = b.
Proof.
  intros HR Ha Hb Da Db. destruct (desc_chain2 t g a b y HR Da Db) as [D|D].
  - symmetry. eapply (sibling_not_desc _ _ HR); eauto.
  - eapply (sibling_not_desc _ _ HR); [exact Hb|exact Ha|exact D].
Qed.

Lemma elder_neq (t : T) g obj l a r c : R t g -> glive g obj -> kids g obj = l ++ a :: r -> In c l -> c <> a.
Proof.
  intros HR Hl Hk Hc ->. destruct (R_live_glive _ _ HR obj) as (_ & Hlv). destruct (Hlv Hl) as (oo & Hoo & Hloo).
  destruct (R_kids _ _ HR _ _ Hoo Hloo) as (_ & _ & _ & Hn). rewrite Hk in Hn.
  apply NoDup_remove_2 in Hn. apply Hn. apply in_or_app. left. exact Hc.
Qed.

Lemma elder_same (t : T) g g1 obj l a r : R t g -> glive g obj -> kids g obj = l ++ a :: r ->
  (forall q, ~ desc g a q -> q <> obj -> kids g1 q = kids g q) ->
  forall c y, In c l -> desc g c y -> kids g1 y = kids g y.
Proof.
  intros HR Hl Hk HF c y Hc Hd.
  assert (Hin : In c (kids g obj)) by (rewrite Hk; apply in_or_app; left; exact Hc).
  assert (Hia : In a (kids g obj)) by (rewrite Hk; apply in_or_app; right; left; reflexivity).
  apply HF.
  - intros Hd'. apply (elder_neq t g obj l a r c HR Hl Hk Hc). apply (siblings_disjoint2 t g obj c a y HR Hin Hia Hd Hd').
  - intros ->. apply (child_not_desc _ _ HR obj c Hin Hd).
Qed.

Lemma desc_same g g' c q : (forall y, desc g c y -> kids g' y = kids g y) -> desc g' c q -> desc g c q.
Proof.
  intros Hk Hd. induction Hd as [|p y Hd IH Hin]; [constructor|]. eapply desc_step; [exact IH|]. rewrite <- (Hk p IH). exact Hin.
Qed.

(** the measures of the walks with useParent: the siblings [m2] that follow the object may be taken too *)
Definition PO2 (g : ghost) (x : N) (m2 : list N) (fuel : nat) : Prop := forall n, sz g x n -> (fuel < 2 * n + length m2)%nat.
Definition PL2 (g : ghost) (l r m2 : list N) (fuel : nat) : Prop :=
  forall m, szl g l m -> (fuel < 2 * m + length r + length m2 + 1)%nat.

Lemma desc_same_fwd g g' c q : (forall y, desc g c y -> kids g' y = kids g y) -> desc g c q -> desc g' c q.
Proof.
  intros Hk Hd. induction Hd as [|p y Hd IH Hin]; [constructor|]. eapply desc_step; [exact IH|]. rewrite (Hk p Hd). exact Hin.
Qed.
