(** C11 (fragment TN, any number of tables): ParseAML on a table with handle [k + 1] loaded into the tree that [k] earlier
    tables without Scope directives have left; connectNamedObjArgs leaves alone the objects of earlier tables. *)
From Coq Require Import NArith ZArith Arith List Bool Lia.
From Coq Require Import ZifyBool ZifyN ZifyNat.
From FF Require Import Lib.Word Gen.Consts_device_acpi_aml Gen.Consts_aml_tree Aml.Stream Aml.Lex Aml.LexProofs
  Aml.Tree Aml.TreeSpec Aml.TreeProofs Aml.TreeProofsOps Aml.TreeProofsFind Aml.Parser Aml.Grammar Aml.LexRoundtrip
  Aml.ParserTotalTree Aml.ParserTotalBase
  Aml.ParserFragBase Aml.ParserFragFirst Aml.ParserFragF0 Aml.ParserFragConn Aml.ParserFragF0Conn Aml.ParserFragWalk
  Aml.ParserFragF0Top Aml.ParserFragRose Aml.ParserFragDev Aml.ParserFragArgs Aml.ParserFragF1 Aml.ParserFragF1First Aml.ParserFragF1Conn Aml.ParserFragF1Top
  Aml.ParserFragMerge Aml.ParserFragScope Aml.ParserFragScope2 Aml.ParserFragScope3 Aml.ParserFragF3Top.
Import ListNotations.
Local Open Scope N_scope.

Lemma rep_free_nil (t : T) g pl : Rep t g pl -> (forall i a, pget pl i = Some a -> y_op a <> opFreed) -> g_free g = [].
Proof.
  intros H Hall. pose proof (rep_R _ _ _ H) as HR. destruct (R_flist _ _ HR) as (Hch & _).
  destruct (g_free g) as [|x r]; [reflexivity|]. exfalso. cbn [fchain] in Hch. destruct Hch as (_ & o & Ho & Hop & _).
  apply (Hall x (pay_of o)); [|cbn [pay_of y_op]; exact Hop].
  rewrite <- (rep_pl _ _ _ H). unfold pget. rewrite nth_error_map. unfold tget, TreeSpec.get in Ho. rewrite Ho. reflexivity.
Qed.

Lemma conn_ok_f1 g h0 tbl0 H0 i a ks : f1_ok h0 tbl0 (RN i a ks) -> h0 <> H0 -> 0 <> H0 -> conn_ok g H0 i a.
Proof.
  intros Hk Hne Hne0. assert (E : (h0 =? H0) = false) by (apply N.eqb_neq; exact Hne). assert (E0 : (0 =? H0) = false) by (apply N.eqb_neq; exact Hne0).
  cbn [f1_ok] in Hk.
  destruct Hk as [(nm & ->)|[(bk & off & nm & p & po & rest & -> & _)|[(off & w & v & -> & _)|[(off & ->)|[(off & -> & _)|[(off & nm & p & po & c & co & d & -> & _ & _)|[(off & d & -> & Hc & _)|[(lk & off & nm & p & po & rest & -> & _)|[(off & bs & -> & _)|[(off & nm & p & po & rest & -> & _)|(off & ->)]]]]]]]]]].
  all: try (destruct bk); try (destruct w); try (destruct lk);
    try (unfold cst_pay; cbn [y_info y_op y_th]; destruct (is_constb_cases _ Hc) as [E1|[E1|[E1|[E1|[E1|[E1|E1]]]]]]; rewrite E1);
    (do 3 eexists; split; [reflexivity|]);
    cbn [blk_pay num_pay sb_pay pth_pay nam_pay lf_pay str_pay pkg_pay y_th y_op]; rewrite ?E, ?E0, ?N.eqb_refl; cbn [negb orb]; rewrite ?orb_true_r; reflexivity.
Qed.

(** the 12: one unit for the outer parseObjectList, [tispec_all] with R = 9, two to leave the list and the root scope *)
Theorem first_t ts fuel tree g pl earlier h hdr a0 :
  let data := hdr ++ enc_titems ts in
  lenN hdr = aml_sizeofSDTHeader -> Forall (fun b => b < 256) data -> lenN data < two32 ->
  Rep tree g pl -> g_free g = [] -> N.of_nat (length pl) + N.of_nat (tszs ts) < InvalidIndex ->
  pget pl 0 = Some a0 -> y_op a0 <> opFreed -> forallb titem_okb ts = true -> (tcnts ts + 12 <= fuel)%nat ->
  wp False (first_pass fuel) (init_state tree earlier h data) (fun res s' => res = ROk /\ exists t1 g1 pl1,
    s' = after_first t1 earlier h data /\ Rep t1 g1 pl1 /\
    Post1 g pl g1 pl1 0 (tlay1 h (N.of_nat (length earlier)) (N.of_nat (length pl)) aml_sizeofSDTHeader ts)).
Proof.
  intros data Hhdr Hbytes Hsmall H Hfree Hroom H0 Hl0 Hok Hfuel.
  assert (Hlen : lenN data = aml_sizeofSDTHeader + lenN (enc_titems ts)) by (unfold data; rewrite lenN_app, Hhdr; reflexivity).
  rewrite init_state_eq by lia.
  destruct fuel as [|f1]; [lia|].
  unfold first_pass. apply wp_bind. apply wp_scopeEnter. scbn.
  apply wp_parseObjectList_cont; [scbn; discriminate|].
  change (mkP (mkReader data (lenN data) aml_sizeofSDTHeader (lenN data)) tree [0] [lenN data] (lenN data) 0 0 0 false h (earlier ++ [data]))
    with (st1 h data (lenN data) (lenN data) (earlier ++ [data]) aml_sizeofSDTHeader (lenN data) tree [0] [lenN data]).
  assert (Etbl : N.of_nat (length (earlier ++ [data])) - 1 = N.of_nat (length earlier)) by (rewrite app_length; cbn [length]; lia).
  rewrite <- Etbl.
  eapply (tispec_all h data (lenN data) (lenN data) (earlier ++ [data]) eq_refl Hsmall Hbytes ts f1 f1 aml_sizeofSDTHeader (lenN data) tree 0 [] [] g pl hdr [] a0 9%nat);
    [exact H|exact Hfree|exact Hroom|unfold data; rewrite app_nil_r; reflexivity|symmetry; exact Hhdr|rewrite Hhdr, Hlen; lia|lia|exact Hok|reflexivity|exact H0|exact Hl0|lia|lia|lia|].
  intros t1 g1 pl1 fo fi H1 P1 Hfi Hfo.
  destruct fi as [|fi']; [clear -Hfi; lia|]. apply wp_list_cont_S. unfold eofM, rq. apply wp_bind, wp_get.
  assert (Eeof : eof (p_r (st1 h data (lenN data) (lenN data) (earlier ++ [data]) (aml_sizeofSDTHeader + lenN (enc_titems ts)) (lenN data) t1 [0] [lenN data])) = true).
  { unfold eof. cbn [st1 p_r r_pkgEnd r_offset]. apply N.leb_le. clear -Hlen; lia. }
  rewrite Eeof. unfold list_end.
  apply wp_bind, wp_get. apply wp_bind, wp_get. scbn. cbn [length Nat.eqb].
  apply wp_bind. unfold wp at 1, scopeExit. scbn.
  apply wp_bind. unfold wp at 1, popPkgEnd. scbn. cbv zeta iota beta.
  destruct fo as [|fo']; [clear -Hfo; lia|]. rewrite parseObjectList_S. apply wp_bind, wp_get. scbn. apply wp_ret.
  split; [reflexivity|]. exists t1, g1, pl1. split; [|split; [exact H1|exact P1]].
  unfold after_first, st1. rewrite <- Hlen. reflexivity.
Qed.

Lemma floopb_forest g pl : forall l f, Forall (Desc g pl) l -> (3 * rsizes l + 1 <= f)%nat -> floopb g f (map ridx l).
Proof.
  induction l as [|c r IH]; intros f HD Hf; (destruct f as [|f1]; [lia|]); cbn [floopb map]; [exact I|].
  cbn [rsizes fold_right] in Hf. fold (rsizes r) in Hf. pose proof (rsize_pos c).
  split; [apply (fwalkb_size g pl c (Forall_inv HD)); lia|apply IH; [exact (Forall_inv_tail HD)|lia]].
Qed.

(** objects of the tables with handles up to [k] (the predefined scopes have handle 0) *)
Definition f1_okB (k : N) (r : rose) : Prop := exists h tbl, h <= k /\ f1_ok h tbl r.

Lemma f1_okB_E k r : f1_okB k r -> f1_okE r.
Proof. intros (h & tbl & _ & Hr). exists h, tbl. exact Hr. Qed.
Lemma f1_okB_mono k k' r : k <= k' -> f1_okB k r -> f1_okB k' r.
Proof. intros Hk (h & tbl & Hh & Hr). exists h, tbl. split; [lia|exact Hr]. Qed.

(** the pool after [k] tables without Scope directives: the predefined scopes are leaves, [KT] are the trees of the
    tables' items, slots 6 .. b-1, no freed slot *)
Record SInv (g : ghost) (pl : list pay) (KT : list rose) (b k : N) : Prop := mkSInv {
  si_root : kids g 0 = D0' ++ map ridx KT;
  si_pay : forall i, 0 <= i <= 5 -> pget pl i = Some (dpay i);
  si_leaf : forall d, 1 <= d <= 5 -> kids g d = [];
  si_KT : Forall (Desc g pl) KT;
  si_ok : Forall (rallr (f1_okB k)) KT;
  si_nodes : forall y, In y (rnodesl KT) <-> 6 <= y < b;
  si_b : 6 <= b;
  si_len : N.of_nat (length pl) = b;
  si_free : g_free g = [];
  si_size : (6 + rsizes KT)%nat = N.to_nat b
}.

Lemma length_le_rsizes (l : list rose) : (length l <= rsizes l)%nat.
Proof. induction l as [|x t IHl]; [cbn; lia|]. cbn [length rsizes fold_right]. fold (rsizes t). pose proof (rsize_pos x). lia. Qed.

Lemma dflt_leaves_okB k : Forall (rallr (f1_okB k)) dflt_leaves.
Proof.
  unfold dflt_leaves. repeat (constructor; [constructor; [exists 0, 0; split; [lia|cbn [f1_ok]; left; eexists; reflexivity]|constructor]|]). constructor.
Qed.

Lemma dflt_leaves_desc g pl : (forall i, 0 <= i <= 5 -> pget pl i = Some (dpay i)) -> (forall d, 1 <= d <= 5 -> kids g d = []) ->
  Forall (Desc g pl) dflt_leaves.
Proof.
  intros Hp Hk. unfold dflt_leaves. repeat (constructor; [apply leaf_desc; [apply Hp; lia|apply Hk; lia]|]). constructor.
Qed.

(** ---- connectNamedObjArgs on the whole tree ---- *)
(** the fuel: [tcspec_all] over the new table (R = 8 within the 24), then three units per object of the earlier tables and the
    predefined scopes for the walk back over them ([floopb_forest]); 24 is not tight *)
Lemma pass2_tn ts fuel t1 g0 pl0 g1 pl1 hdr earlier KT0 b k :
  let data := hdr ++ enc_titems ts in
  forallb titem_okb ts = true -> lenN hdr = aml_sizeofSDTHeader -> lenN earlier = k ->
  SInv g0 pl0 KT0 b k ->
  Rep t1 g1 pl1 -> Post1 g0 pl0 g1 pl1 0 (tlay1 (k + 1) k b aml_sizeofSDTHeader ts) ->
  (tcfuel ts + 3 * N.to_nat b + 24 <= fuel)%nat ->
  wp False (connectNamedObjArgs fuel 0) (after_first t1 earlier (k + 1) data) (fun r s' => r = ROk /\ exists t2 g2 pl2,
    s' = with_tree (after_first t1 earlier (k + 1) data) t2 /\ Rep t2 g2 pl2 /\
    MInv (k + 1) k g2 pl2 KT0 (fun _ => []) b aml_sizeofSDTHeader ts).
Proof.
  intros data Hok Hhdr Hearlier [Hk00 Hpay0 Hleaf0 HDK0 HOK0 Hnodes0 Hb6 Hl0 Hfree0 Hsize0] H1 P1 Hfuel. destruct P1 as [A1 A2 A3 A4 A5 A6].
  pose proof (dflt_leaves_desc g0 pl0 Hpay0 Hleaf0) as HDL0.
  rewrite Hl0 in *.
  set (s1 := after_first t1 earlier (k + 1) data).
  assert (Hp0 : pget pl1 0 = Some (dpay 0)) by (rewrite A6 by (clear -Hb6; lia); apply Hpay0; clear; lia).
  assert (Hk0 : kids g1 0 = (D0' ++ map ridx KT0) ++ map ridx (tlay1 (k + 1) k b aml_sizeofSDTHeader ts) ++ []) by (rewrite A3, Hk00, app_nil_r; reflexivity).
  assert (Hnth : nth_error (earlier ++ [data]) (N.to_nat k) = Some data).
  { rewrite nth_error_app2 by (unfold lenN in Hearlier; clear -Hearlier; lia). replace (N.to_nat k - length earlier)%nat with 0%nat by (unfold lenN in Hearlier; clear -Hearlier; lia). reflexivity. }
  destruct fuel as [|F]; [clear -Hfuel; lia|]. rewrite connectNamedObjArgs_S.
  apply wp_bind. eapply wp_objectAt_rep; [exact H1|exact Hp0|discriminate|].
  apply wp_bind. eapply wp_rdf_rep; [exact H1|exact Hp0|discriminate|]. intros o0 _ _ _ Hlast. rewrite Hlast, A3, Hk00.
  pose proof (tclen_le_tcfuel ts) as Hcl.
  eapply (tcspec_all (k + 1) k (earlier ++ [data]) data Hnth ts 0 (D0' ++ map ridx KT0) [] b aml_sizeofSDTHeader s1 g1 pl1 F _ (F - tcfuel ts)%nat hdr []);
    [exact H1|exact Hk0|exact A4|exact Hp0|discriminate|left; clear -Hb6; lia|reflexivity|reflexivity|unfold data; rewrite app_nil_r; reflexivity|symmetry; exact Hhdr|exact Hok|clear -Hfuel; lia|clear -Hfuel; lia|].
  intros t2 g2 pl2 H2 [Q1 Q2 Q3 Q4]. rewrite app_nil_r in Q1.
  (* the objects of the earlier tables and the predefined scopes are left alone *)
  set (F0 := dflt_leaves ++ KT0).
  assert (Hframe : forall y, In y (rnodesl F0) -> kids g2 y = kids g0 y /\ pget pl2 y = pget pl0 y).
  { intros y Hy. assert (Hylt : 1 <= y < b).
    { unfold F0 in Hy. rewrite rnodesl_app in Hy. apply in_app_or in Hy. destruct Hy as [Hy|Hy].
      - unfold dflt_leaves, rnodesl in Hy. cbn in Hy. clear -Hy Hb6; lia.
      - apply Hnodes0 in Hy. clear -Hy; lia. }
    split; [rewrite Q3 by (clear -Hylt; lia); apply A5; clear -Hylt; lia|rewrite Q4 by (clear -Hylt; lia); apply A6; clear -Hylt; lia]. }
  assert (HDF0 : Forall (Desc g0 pl0) F0) by (apply Forall_app; split; assumption).
  assert (HDF : Forall (Desc g2 pl2) F0).
  { apply (Desc_frame_l g0 pl0); [exact HDF0|]. intros y Hy. destruct (Hframe y Hy). auto. }
  assert (HOF : Forall (rallr (f1_okB k)) F0) by (apply Forall_app; split; [apply dflt_leaves_okB|exact HOK0]).
  assert (Hidx : map ridx F0 = D0' ++ map ridx KT0) by (unfold F0; rewrite map_app; reflexivity).
  rewrite <- Hidx. rewrite <- (rev_involutive (map ridx F0)), last_rev_hd.
  eapply wp_conseq.
  { refine (proj2 (connS_all g2 pl2 (k + 1) (fun y => In y (rnodesl F0)) _ _ (F - tclen ts)) 0 (rev (map ridx F0)) (map ridx (tlay2 (k + 1) k b aml_sizeofSDTHeader ts)) (with_tree s1 t2) H2 eq_refl _ _ _).
    - intros y c Hy Hc. apply (forest_kids_in g2 pl2 F0 HDF y c Hy Hc).
    - intros y a Hy Ha _. unfold rnodesl in Hy. apply in_flat_map in Hy. destruct Hy as (r & Hr & Hyr). rewrite Forall_forall in HDF, HOF.
      destruct (rallr_lookup g2 pl2 _ r (HDF r Hr) (HOF r Hr) y Hyr) as (a2 & ks2 & D2 & (h0 & tbl0 & Hh0 & O2)).
      destruct (Desc_inv _ _ _ _ _ D2) as (P2 & _ & _). assert (a2 = a) by congruence. subst a2.
      apply (conn_ok_f1 g2 h0 tbl0 (k + 1) y a ks2 O2); clear -Hh0; lia.
    - rewrite rev_involutive, Q1, Hidx. reflexivity.
    - intros c Hc. apply in_rev in Hc. apply in_map_iff in Hc. destruct Hc as (r & <- & Hr).
      unfold rnodesl. apply in_flat_map. exists r. split; [exact Hr|]. destruct r. rewrite rnodes_eq. left. reflexivity.
    - rewrite <- map_rev. apply (floopb_forest g2 pl2); [apply Forall_rev; exact HDF|].
      rewrite rsizes_rev. unfold F0. rewrite rsizes_app. unfold dflt_leaves. cbn [rsizes fold_right]. rewrite !rsize_eq. cbn [rsizes fold_right].
      fold (rsizes KT0). pose proof (tclen_le_tcfuel ts). clear -Hcl Hfuel Hsize0; lia. }
  intros r s' (-> & ->). split; [reflexivity|]. exists t2, g2, pl2. split; [reflexivity|]. split; [exact H2|].
  assert (Hin0 : forall y, In y (rnodesl KT0) -> In y (rnodesl F0)) by (intros y Hy; unfold F0; rewrite rnodesl_app; apply in_or_app; right; exact Hy).
  constructor.
  - rewrite Q1, <- app_assoc. reflexivity.
  - intros i Hi. rewrite Q4 by (clear -Hi Hb6; lia). rewrite A6 by (clear -Hi Hb6; lia). apply Hpay0. exact Hi.
  - intros d Hd. rewrite Q3 by (clear -Hd Hb6; lia). rewrite A5 by (clear -Hd Hb6; lia). apply Hleaf0. exact Hd.
  - exact Q2.
  - apply Forall_app in HDF. apply HDF.
  - intros d Hd. constructor.
  - eapply Forall_impl; [|exact HOK0]. intros r. apply rallr_mono. intros r0. apply f1_okB_E.
  - intros d Hd. constructor.
  - intros y Hy. apply Hnodes0 in Hy. clear -Hy; lia.
  - intros d y Hd [].
  - clear -Hb6; lia.
  - intros y a Hy Hpa Hla. left. apply Hnodes0. clear -Hy; lia.
  - intros y Hy. rewrite Q4 by (clear -Hy; lia). apply pget_none. rewrite A2, tlay1_rsizes. clear -Hy Hl0; lia.
Qed.

(** ---- ParseAML on the next table ---- *)
Theorem parse_tn ts t1 g0 pl0 KT0 b k earlier :
  forallb titem_okb ts = true -> b + aml_sizeofSDTHeader + lenN (enc_titems ts) < InvalidIndex ->
  Rep t1 g0 pl0 -> SInv g0 pl0 KT0 b k -> lenN earlier = k ->
  exists s' gF plF,
    parseAML t1 earlier (k + 1) (table_image (enc_titems ts)) = Ok (true, s') /\
    Rep (p_tree s') gF plF /\ p_tables s' = earlier ++ [table_image (enc_titems ts)] /\
    MInv (k + 1) k gF plF (KT0 ++ keep (k + 1) k b aml_sizeofSDTHeader ts) (moved (k + 1) k b aml_sizeofSDTHeader ts)
         (b + N.of_nat (tszs ts)) (aml_sizeofSDTHeader + lenN (enc_titems ts)) [].
Proof.
  intros Hok Hsz H0 S0 Hearlier.
  destruct (enc_titems_len ts) as (Hcf & Hsz' & Hcn & Hln).
  pose proof S0 as [Hk00 Hpay0 Hleaf0 HDK0 HOK0 Hnodes0 Hb6 Hl0 Hfree0 Hsize0].
  rewrite table_image_hdr. set (hdr := hdr_of (enc_titems ts)). set (data := hdr ++ enc_titems ts).
  assert (Hhdr : lenN hdr = aml_sizeofSDTHeader) by apply lenN_hdr_of.
  assert (HlenD : lenN data = aml_sizeofSDTHeader + lenN (enc_titems ts)) by (unfold data; rewrite lenN_app, Hhdr; reflexivity).
  assert (Hpool : length (t_pool t1) = N.to_nat b) by (rewrite <- (rep_len_pool _ _ _ H0); clear -Hl0; lia).
  unfold parseAML. rewrite Hpool.
  set (fuel := parse_fuel (length data + N.to_nat b)).
  assert (Hfuel : (352 + 8 * length (enc_titems ts) + 8 * N.to_nat b <= fuel)%nat).
  { unfold fuel, parse_fuel. unfold lenN in *. change aml_sizeofSDTHeader with 36 in HlenD. clear -HlenD; lia. }
  clearbody fuel.
  set (h := k + 1).
  set (MI := fun g pl => MInv h k g pl (KT0 ++ keep h k b aml_sizeofSDTHeader ts) (moved h k b aml_sizeofSDTHeader ts)
                              (b + N.of_nat (tszs ts)) (aml_sizeofSDTHeader + lenN (enc_titems ts)) []).
  assert (Hgoal : wp False (parseAML_body fuel) (init_state t1 earlier h data) (fun b0 s' => b0 = true /\
            exists gF plF, Rep (p_tree s') gF plF /\ MI gF plF /\ p_tables s' = earlier ++ [data])).
  2:{ destruct (wp_run _ _ _ Hgoal) as (b0 & s' & E & -> & gF & plF & A & B & C). exists s', gF, plF. auto. }
  apply (wp_eqm _ _ _ _ _ (parseAML_body_eq fuel _)).
  (* the first pass *)
  apply wp_bind. eapply wp_conseq.
  { eapply (first_t ts fuel t1 g0 pl0 earlier h hdr (dpay 0)); [exact Hhdr| | |exact H0|exact Hfree0| |apply Hpay0; clear; lia|discriminate|exact Hok|clear -Hfuel Hcn; lia].
    - apply Forall_app. split; [apply hdr_bytes|apply enc_titems_bytes; exact Hok].
    - fold data. rewrite HlenD. unfold two32. change InvalidIndex with 0xffffffff in Hsz. clear -Hsz; lia.
    - rewrite Hl0. unfold lenN in *. clear -Hsz' Hsz; lia. }
  intros res s1 (-> & t1' & g1 & pl1 & -> & H1 & P1). fold data in H1, P1 |- *.
  change (pres_eqb ROk RFailed) with false. cbv iota. rewrite Hl0 in P1.
  replace (N.of_nat (length earlier)) with k in P1 by (unfold lenN in Hearlier; lia).
  (* connectNamedObjArgs *)
  apply wp_bind. eapply wp_conseq.
  { apply (pass2_tn ts fuel t1' g0 pl0 g1 pl1 hdr earlier KT0 b k Hok Hhdr Hearlier S0 H1 P1). clear -Hfuel Hcf; lia. }
  intros r s2 (-> & t2 & g2 & pl2 & -> & H2 & I2).
  change (negb (pres_eqb ROk ROk)) with false. cbv iota.
  (* the remaining passes *)
  set (s2 := with_tree (after_first t1' earlier h data) t2).
  assert (Hnth : nth_error (earlier ++ [data]) (N.to_nat k) = Some data).
  { rewrite nth_error_app2 by (unfold lenN in Hearlier; clear -Hearlier; lia). replace (N.to_nat k - length earlier)%nat with 0%nat by (unfold lenN in Hearlier; clear -Hearlier; lia). reflexivity. }
  eapply wp_conseq.
  { apply (rest_generic2 fuel s2 h MI).
    - intros t g pl Hrep I. destruct (root_treeG_facts h k g pl _ _ _ _ I) as (D3 & O3 & C3).
      eexists; exists (dpay 0). split; [exact D3|]. split; [reflexivity|]. split; [apply (Desc_inv _ _ _ _ _ D3)|]. split; [discriminate|].
      split; [apply (f1_conds t g pl _ h Hrep D3 O3 C3)|].
      unfold root_treeG. rewrite rsize_eq, !rsizes_app. cbn [D0' map rsizes fold_right]. rewrite !rsize_eq.
      pose proof (keep_moved_size h k ts b aml_sizeofSDTHeader). unfold rsizes in *. clear -H Hfuel Hsize0 Hsz'; lia.
    - eapply wp_conseq.
      { rewrite <- Hhdr in I2.
        apply (merge_rootG h k (earlier ++ [data]) data Hnth ts KT0 b hdr [] fuel (with_counters s2 1 (p_mergedScopes s2) (p_relocatedObjects s2)) g2 pl2 H2 I2 eq_refl eq_refl);
          [unfold data; rewrite app_nil_r; reflexivity|exact Hok|].
        pose proof (length_le_rsizes KT0). clear -H Hfuel Hsize0 Hln Hsz'; lia. }
      intros r s3 (-> & g3 & pl3 & H3 & Hh3 & Htb3 & Hr3 & I3). split; [reflexivity|]. exists g3, pl3.
      split; [exact H3|]. split; [unfold MI; rewrite <- Hhdr; exact I3|]. split; [exact Hh3|]. split; [exact Htb3|]. rewrite Hr3. reflexivity. }
  intros b0 s3 (-> & g3 & pl3 & H3 & I3 & Etb). split; [reflexivity|]. exists g3, pl3.
  split; [exact H3|]. split; [exact I3|exact Etb].
Qed.

(** ---- tables without Scope directives ---- *)
Definition noscope (ts : list titem) : bool := forallb (fun x => match x with TItem _ => true | TScope _ _ _ _ => false end) ts.

Lemma moved_noscope h tbl d : forall ts b off, noscope ts = true -> moved h tbl b off ts d = [].
Proof.
  induction ts as [|x t IH]; intros b off Hn; [reflexivity|]. cbn [noscope forallb] in Hn. apply andb_prop in Hn. destruct Hn as [Hx Ht].
  destruct x as [it|]; [|discriminate]. cbn [moved app]. apply IH. exact Ht.
Qed.

Lemma keep_okh h tbl : forall ts b off, forallb titem_okb ts = true -> Forall (rallr (f1_ok h tbl)) (keep h tbl b off ts).
Proof.
  induction ts as [|x t IH]; intros b off Hok; [constructor|]. cbn [forallb] in Hok. apply andb_prop in Hok. destruct Hok as [Hx Ht].
  cbn [keep]. apply Forall_app. split; [|apply IH; exact Ht].
  destruct x as [it|]; [|constructor]. rewrite <- lay2_single. apply lay2_okh. cbn [forallb titem_okb] in *. rewrite Hx. reflexivity.
Qed.

Lemma keep_nodes_all h tbl : forall ts b off y, noscope ts = true -> b <= y < b + N.of_nat (tszs ts) -> In y (rnodesl (keep h tbl b off ts)).
Proof.
  induction ts as [|x t IH]; intros b off y Hn Hy; [cbn in Hy; lia|]. cbn [noscope forallb] in Hn. apply andb_prop in Hn. destruct Hn as [Hx Ht].
  destruct x as [it|]; [|discriminate]. cbn [keep]. rewrite rnodesl_app. cbn [tszs fold_right tsz] in Hy. fold (tszs t) in Hy. apply in_or_app.
  destruct (N.ltb_spec y (b + N.of_nat (isz it))) as [Hlt|Hge].
  - left. rewrite <- lay2_single. apply lay2_nodes_all. cbn [iszs fold_right]. lia.
  - right. apply IH; [exact Ht|cbn [tsz]; lia].
Qed.

Lemma keep_rsizes h tbl : forall ts b off, noscope ts = true -> rsizes (keep h tbl b off ts) = tszs ts.
Proof.
  induction ts as [|x t IH]; intros b off Hn; [reflexivity|]. cbn [noscope forallb] in Hn. apply andb_prop in Hn. destruct Hn as [Hx Ht].
  destruct x as [it|]; [|discriminate]. cbn [keep]. rewrite rsizes_app, (IH _ _ Ht). cbn [tszs fold_right tsz]. fold (tszs t).
  rewrite <- lay2_single, lay2_rsizes. cbn [iszs fold_right]. lia.
Qed.

(** the state before the first table *)
Lemma sinv_init : SInv g0c pl0c [] 6 0.
Proof.
  constructor; try reflexivity.
  - intros i Hi. assert (Hc : i = 0 \/ i = 1 \/ i = 2 \/ i = 3 \/ i = 4 \/ i = 5) by lia.
    destruct Hc as [ -> | [ -> | [ -> | [ -> | [ -> | -> ] ] ] ] ]; reflexivity.
  - intros d Hd. apply kids_g0c. lia.
  - constructor.
  - constructor.
  - intros y. cbn [rnodesl flat_map In]. lia.
Qed.

(** after a table without Scope directives the pool is again of that shape *)
Lemma sinv_next (t : T) g pl KT0 b k ts B off :
  Rep t g pl -> noscope ts = true -> forallb titem_okb ts = true ->
  Forall (rallr (f1_okB k)) KT0 -> (forall y, 6 <= y < b -> In y (rnodesl KT0)) -> (6 + rsizes KT0)%nat = N.to_nat b ->
  MInv (k + 1) k g pl (KT0 ++ keep (k + 1) k b aml_sizeofSDTHeader ts) (moved (k + 1) k b aml_sizeofSDTHeader ts) (b + N.of_nat (tszs ts)) off [] ->
  B = b + N.of_nat (tszs ts) ->
  SInv g pl (KT0 ++ keep (k + 1) k b aml_sizeofSDTHeader ts) B (k + 1).
Proof.
  intros H Hn Hok HOK0 Hcov0 Hsize0 [I1 I2 I3 I4 I5 I6 I7 I8 I9 I10 I11 I12 I13] ->.
  set (KT := KT0 ++ keep (k + 1) k b aml_sizeofSDTHeader ts) in *.
  assert (Hall : forall y, 6 <= y < b + N.of_nat (tszs ts) -> In y (rnodesl KT)).
  { intros y Hy. unfold KT. rewrite rnodesl_app. apply in_or_app. destruct (N.ltb_spec y b) as [Hlt|Hge].
    - left. apply Hcov0. clear -Hlt Hy; lia.
    - right. apply keep_nodes_all; [exact Hn|clear -Hge Hy; lia]. }
  assert (Hsome : forall y, y < b + N.of_nat (tszs ts) -> exists a, pget pl y = Some a /\ y_op a <> opFreed).
  { intros y Hy. destruct (N.ltb_spec y 6) as [Hlt|Hge].
    - exists (dpay y). split; [apply I2; clear -Hlt; lia|discriminate].
    - pose proof (Hall y ltac:(clear -Hge Hy; lia)) as Hin. unfold rnodesl in Hin. apply in_flat_map in Hin. destruct Hin as (r & Hr & Hyr).
      rewrite Forall_forall in I5, I7.
      destruct (rallr_lookup g pl _ r (I5 r Hr) (I7 r Hr) y Hyr) as (a & ks & Dy & Oy).
      destruct (Desc_inv _ _ _ _ _ Dy) as (Py & _ & _). exists a. split; [exact Py|]. apply (f1_okE_live y a ks Oy). }
  assert (Hlen : N.of_nat (length pl) = b + N.of_nat (tszs ts)).
  { apply N.le_antisymm.
    - destruct (N.leb_spec (N.of_nat (length pl)) (b + N.of_nat (tszs ts))) as [Hle|Hgt]; [exact Hle|].
      pose proof (I13 (b + N.of_nat (tszs ts)) ltac:(cbn [tszs fold_right]; clear; lia)) as Hnone.
      unfold pget in Hnone. apply nth_error_None in Hnone. clear -Hnone; lia.
    - destruct (N.leb_spec (b + N.of_nat (tszs ts)) (N.of_nat (length pl))) as [Hle|Hgt]; [exact Hle|].
      destruct (Hsome (b + N.of_nat (tszs ts) - 1) ltac:(clear -Hsize0; lia)) as (a & Pa & _). apply pget_lt in Pa. clear -Pa; lia. }
  constructor.
  - cbn [tlay2 map] in I1. rewrite app_nil_r in I1. exact I1.
  - exact I2.
  - intros d Hd. rewrite (I3 d Hd), moved_noscope by exact Hn. reflexivity.
  - exact I5.
  - unfold KT. apply Forall_app. split.
    + eapply Forall_impl; [|exact HOK0]. intros r. apply rallr_mono. intros r0. apply f1_okB_mono. clear; lia.
    + eapply Forall_impl; [|apply (keep_okh (k + 1) k ts b aml_sizeofSDTHeader Hok)]. intros r. apply rallr_mono. intros r0 Hr0.
      exists (k + 1), k. split; [clear; lia|exact Hr0].
  - intros y. split; [apply I9|apply Hall].
  - clear -Hsize0; lia.
  - exact Hlen.
  - apply (rep_free_nil _ _ _ H). intros i a Hi. pose proof (pget_lt _ _ _ Hi) as Hlt. rewrite Hlen in Hlt.
    destruct (Hsome i Hlt) as (a' & Pa & La). assert (a' = a) by congruence. subst a'. exact La.
  - unfold KT. rewrite rsizes_app, keep_rsizes by exact Hn. clear -Hsize0; lia.
Qed.

(** ---- loading a sequence of tables ---- *)
Fixpoint KTn (k b : N) (tss : list (list titem)) : list rose :=
  match tss with
  | [] => []
  | ts :: r => keep (k + 1) k b aml_sizeofSDTHeader ts ++ KTn (k + 1) (b + N.of_nat (tszs ts)) r
  end.
Definition tszsn (tss : list (list titem)) : nat := fold_right (fun ts n => (tszs ts + n)%nat) O tss.
Definition front_ok (ts : list titem) : Prop := noscope ts = true /\ forallb titem_okb ts = true.
Definition images (tss : list (list titem)) : list (list N) := map (fun ts => table_image (enc_titems ts)) tss.

Lemma load_front : forall tss k b KT0 t g pl earlier rest,
  Rep t g pl -> SInv g pl KT0 b k -> lenN earlier = k -> Forall front_ok tss ->
  b + aml_sizeofSDTHeader + lenN (flat_map enc_titems tss) < InvalidIndex ->
  exists t' g' pl' h', h' = k + lenN tss + 1 /\
    load_tables t earlier (k + 1) (map enc_titems tss ++ rest) = load_tables t' (earlier ++ images tss) h' rest /\
    Rep t' g' pl' /\ SInv g' pl' (KT0 ++ KTn k b tss) (b + N.of_nat (tszsn tss)) (k + lenN tss).
Proof.
  induction tss as [|ts r IH]; intros k b KT0 t g pl earlier rest H S0 He Hfr Hsz.
  - exists t, g, pl, (k + 1). cbn [map app images KTn tszsn fold_right]. rewrite !app_nil_r. change (lenN []) with 0. rewrite !N.add_0_r.
    split; [reflexivity|]. split; [reflexivity|]. split; [exact H|exact S0].
  - pose proof (Forall_inv Hfr) as (Hn & Hok). pose proof (Forall_inv_tail Hfr) as Hfr'.
    cbn [flat_map] in Hsz. rewrite lenN_app in Hsz.
    destruct (enc_titems_len ts) as (_ & Hsz' & _).
    assert (Hsz1 : b + aml_sizeofSDTHeader + lenN (enc_titems ts) < InvalidIndex) by lia.
    destruct (parse_tn ts t g pl KT0 b k earlier Hok Hsz1 H S0 He) as (s' & gF & plF & Ep & HF & Etb & IF).
    pose proof S0 as [_ _ _ _ HOK0 Hnodes0 _ _ _ Hsize0].
    pose proof (sinv_next (p_tree s') gF plF KT0 b k ts _ _ HF Hn Hok HOK0 (fun y Hy => proj2 (Hnodes0 y) Hy) Hsize0 IF eq_refl) as S1.
    assert (He1 : lenN (earlier ++ [table_image (enc_titems ts)]) = k + 1) by (rewrite lenN_app; change (lenN [table_image (enc_titems ts)]) with 1; clear -He; lia).
    assert (Hsz2 : b + N.of_nat (tszs ts) + aml_sizeofSDTHeader + lenN (flat_map enc_titems r) < InvalidIndex) by (unfold lenN in *; clear -Hsz' Hsz; lia).
    destruct (IH (k + 1) (b + N.of_nat (tszs ts)) (KT0 ++ keep (k + 1) k b aml_sizeofSDTHeader ts) (p_tree s') gF plF (earlier ++ [table_image (enc_titems ts)]) rest HF S1 He1 Hfr' Hsz2)
      as (t' & g' & pl' & h' & Eh & El & H' & S').
    exists t', g', pl', h'. split; [rewrite Eh; unfold lenN; cbn [length]; clear; lia|].
    split.
    + cbn [map app load_tables]. rewrite Ep. rewrite El. unfold images. cbn [map]. rewrite <- app_assoc. reflexivity.
    + split; [exact H'|]. cbn [KTn tszsn fold_right]. fold (tszsn r). rewrite app_assoc.
      replace (b + N.of_nat (tszs ts + tszsn r)) with (b + N.of_nat (tszs ts) + N.of_nat (tszsn r)) by (clear; lia).
      replace (k + lenN (ts :: r)) with (k + 1 + lenN r) by (unfold lenN; cbn [length]; clear; lia). exact S'.
Qed.

(** the final tree of [tss ++ [ts]]: the tables [tss] have no Scope directives *)
Definition root_tree_tn (tss : list (list titem)) (ts : list titem) : rose :=
  let k := lenN tss in let b := 6 + N.of_nat (tszsn tss) in
  root_treeG (KTn 0 6 tss ++ keep (k + 1) k b aml_sizeofSDTHeader ts) (moved (k + 1) k b aml_sizeofSDTHeader ts).

Theorem load_tn tss ts t0 :
  Rep t0 g0c pl0c -> Forall front_ok tss -> forallb titem_okb ts = true ->
  6 + aml_sizeofSDTHeader + lenN (flat_map enc_titems (tss ++ [ts])) < InvalidIndex ->
  exists tF gF plF,
    load_tables t0 [] 1 (map enc_titems (tss ++ [ts])) = (0, tF, images (tss ++ [ts])) /\
    Rep tF gF plF /\ Desc gF plF (root_tree_tn tss ts).
Proof.
  intros H0 Hfr Hok Hsz.
  rewrite flat_map_app, lenN_app in Hsz. cbn [flat_map] in Hsz. rewrite app_nil_r in Hsz.
  assert (Hsz0 : 6 + aml_sizeofSDTHeader + lenN (flat_map enc_titems tss) < InvalidIndex) by lia.
  destruct (load_front tss 0 6 [] t0 g0c pl0c [] [enc_titems ts] H0 sinv_init eq_refl Hfr Hsz0) as (t' & g' & pl' & h' & Eh & El & H' & S').
  cbn [app] in S', El. rewrite N.add_0_l in S', Eh.
  assert (Hb : N.of_nat (tszsn tss) <= lenN (flat_map enc_titems tss)).
  { clear. induction tss as [|x r IH]; [cbn; lia|]. cbn [tszsn fold_right flat_map]. fold (tszsn r). rewrite lenN_app.
    destruct (enc_titems_len x) as (_ & Hx & _). unfold lenN in *. lia. }
  assert (Hsz1 : 6 + N.of_nat (tszsn tss) + aml_sizeofSDTHeader + lenN (enc_titems ts) < InvalidIndex) by lia.
  assert (He1 : lenN (images tss) = lenN tss) by (unfold images, lenN; rewrite map_length; reflexivity).
  destruct (parse_tn ts t' g' pl' _ _ _ (images tss) Hok Hsz1 H' S' He1)
    as (s' & gF & plF & Ep & HF & Etb & IF).
  exists (p_tree s'), gF, plF. split; [|split; [exact HF|apply (root_treeG_facts _ _ _ _ _ _ _ _ IF)]].
  rewrite map_app. cbn [map]. change 1 with (0 + 1) at 1. rewrite El, Eh. cbn [load_tables]. rewrite Ep. cbn [load_tables].
  unfold images. rewrite map_app. reflexivity.
Qed.
