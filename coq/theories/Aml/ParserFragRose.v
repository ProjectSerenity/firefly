(** C11 (fragment proofs): describing a part of the pool by a tree of (slot, payload) nodes.

    [Desc g pl r]: the forest [g] and the payload list [pl] contain the tree [r]: every node has the given
    payload and its child list is the list of the roots of the sub-trees.  Frame lemma, lookup of a node, and the
    fuel the tree walks need in terms of the size of the tree. *)
From Coq Require Import NArith ZArith Arith List Bool Lia.
From Coq Require Import ZifyBool ZifyN ZifyNat.
From FF Require Import Lib.Word Gen.Consts_device_acpi_aml Gen.Consts_aml_tree Aml.Stream Aml.Lex
  Aml.Tree Aml.TreeSpec Aml.TreeProofs Aml.Parser
  Aml.ParserTotalBase Aml.ParserFragBase Aml.ParserFragWalk.
Import ListNotations.
Local Open Scope N_scope.

Inductive rose : Type := RN (i : N) (a : pay) (ks : list rose).

Definition ridx (r : rose) : N := match r with RN i _ _ => i end.
Definition rpay (r : rose) : pay := match r with RN _ a _ => a end.
Definition rkids (r : rose) : list rose := match r with RN _ _ ks => ks end.

Fixpoint rsize (r : rose) : nat :=
  match r with RN _ _ ks => S ((fix go (l : list rose) : nat := match l with [] => O | x :: t => (rsize x + go t)%nat end) ks) end.
Definition rsizes (l : list rose) : nat := fold_right (fun x n => (rsize x + n)%nat) O l.

Lemma rsize_eq i a ks : rsize (RN i a ks) = S (rsizes ks).
Proof. reflexivity. Qed.

Lemma rsize_pos r : (1 <= rsize r)%nat.
Proof. destruct r. rewrite rsize_eq. lia. Qed.

Fixpoint rnodes (r : rose) : list N :=
  match r with RN i _ ks => i :: (fix go (l : list rose) : list N := match l with [] => [] | x :: t => rnodes x ++ go t end) ks end.
Definition rnodesl (l : list rose) : list N := flat_map rnodes l.

Lemma rnodes_eq i a ks : rnodes (RN i a ks) = i :: rnodesl ks.
Proof. reflexivity. Qed.

(** induction over trees *)
Lemma rose_ind2 (P : rose -> Prop) :
  (forall i a ks, Forall P ks -> P (RN i a ks)) -> forall r, P r.
Proof.
  intros Hn. fix IH 1. intros [i a ks]. apply Hn.
  induction ks as [|x t IHt]; constructor; [apply IH|exact IHt].
Qed.

Section Desc.
Variable g : ghost.
Variable pl : list pay.

Inductive Desc : rose -> Prop :=
| Desc_node i a ks : pget pl i = Some a -> kids g i = map ridx ks -> Forall Desc ks -> Desc (RN i a ks).

Lemma Desc_inv i a ks : Desc (RN i a ks) -> pget pl i = Some a /\ kids g i = map ridx ks /\ Forall Desc ks.
Proof. intros H. inversion H; subst. auto. Qed.

(** every node of a described tree is the root of a described sub-tree *)
Lemma Desc_lookup : forall r, Desc r -> forall x, In x (rnodes r) -> exists a ks, Desc (RN x a ks).
Proof.
  induction r as [i a ks IH] using rose_ind2. intros Hd x Hx. destruct (Desc_inv _ _ _ Hd) as (Hp & Hk & Hks).
  rewrite rnodes_eq in Hx. destruct Hx as [<-|Hx]; [exists a, ks; exact Hd|].
  unfold rnodesl in Hx. apply in_flat_map in Hx. destruct Hx as (c & Hc & Hxc).
  rewrite Forall_forall in IH, Hks. apply (IH c Hc (Hks c Hc) x Hxc).
Qed.
End Desc.

(** frame: a description survives changes outside its nodes *)
Lemma Desc_frame g pl g' pl' : forall r, Desc g pl r ->
  (forall x, In x (rnodes r) -> kids g' x = kids g x /\ pget pl' x = pget pl x) -> Desc g' pl' r.
Proof.
  induction r as [i a ks IH] using rose_ind2. intros Hd Hf. destruct (Desc_inv _ _ _ _ _ Hd) as (Hp & Hk & Hks).
  destruct (Hf i) as (E1 & E2); [rewrite rnodes_eq; left; reflexivity|].
  constructor; [rewrite E2; exact Hp|rewrite E1; exact Hk|].
  rewrite Forall_forall in IH, Hks |- *. intros c Hc. apply (IH c Hc (Hks c Hc)).
  intros x Hx. apply Hf. rewrite rnodes_eq. right. unfold rnodesl. apply in_flat_map. exists c. auto.
Qed.

Lemma Desc_frame_l g pl g' pl' (l : list rose) : Forall (Desc g pl) l ->
  (forall x, In x (rnodesl l) -> kids g' x = kids g x /\ pget pl' x = pget pl x) -> Forall (Desc g' pl') l.
Proof.
  intros Hl Hf. rewrite Forall_forall in Hl |- *. intros c Hc. apply (Desc_frame g pl); [apply Hl; exact Hc|].
  intros x Hx. apply Hf. unfold rnodesl. apply in_flat_map. exists c. auto.
Qed.

(** ---- fuel of the walks in terms of the size ---- *)
Lemma fwalk_size g pl : forall r, Desc g pl r -> forall f, (3 * rsize r <= f)%nat -> fwalk g f (ridx r).
Proof.
  induction r as [i a ks IH] using rose_ind2. intros Hd f Hf. destruct (Desc_inv _ _ _ _ _ Hd) as (_ & Hk & Hks).
  rewrite rsize_eq in Hf. destruct f as [|f1]; [lia|]. cbn [fwalk ridx]. rewrite Hk.
  assert (HL : forall l f1, Forall (fun r => Desc g pl r -> forall f, (3 * rsize r <= f)%nat -> fwalk g f (ridx r)) l ->
             Forall (Desc g pl) l -> (3 * rsizes l + 1 <= f1)%nat -> floop g f1 (map ridx l)).
  { clear. induction l as [|c r IHl]; intros f2 HI HD Hf2; (destruct f2 as [|f3]; [lia|]); cbn [floop map]; [exact I|].
    inversion HI; subst. inversion HD; subst. cbn [rsizes fold_right length] in Hf2. fold (rsizes r) in Hf2.
    pose proof (rsize_pos c).
    split; [apply H1; [assumption|lia]|apply IHl; [assumption|assumption|lia]]. }
  apply HL; [exact IH|exact Hks|]. lia.
Qed.

Lemma rsizes_rev l : rsizes (rev l) = rsizes l.
Proof.
  induction l as [|x t IH]; [reflexivity|]. cbn [rev]. unfold rsizes in *. rewrite fold_right_app. cbn [fold_right].
  rewrite <- IH. clear. generalize (rsize x). induction (rev t) as [|y l IHl]; intros n; cbn [fold_right]; [lia|]. rewrite IHl. lia.
Qed.

Lemma fwalkb_size g pl : forall r, Desc g pl r -> forall f, (3 * rsize r <= f)%nat -> fwalkb g f (ridx r).
Proof.
  induction r as [i a ks IH] using rose_ind2. intros Hd f Hf. destruct (Desc_inv _ _ _ _ _ Hd) as (_ & Hk & Hks).
  rewrite rsize_eq in Hf. destruct f as [|f1]; [lia|]. cbn [fwalkb ridx]. rewrite Hk, <- map_rev.
  assert (HL : forall l f1, Forall (fun r => Desc g pl r -> forall f, (3 * rsize r <= f)%nat -> fwalkb g f (ridx r)) l ->
             Forall (Desc g pl) l -> (3 * rsizes l + 1 <= f1)%nat -> floopb g f1 (map ridx l)).
  { clear. induction l as [|c r IHl]; intros f2 HI HD Hf2; (destruct f2 as [|f3]; [lia|]); cbn [floopb map]; [exact I|].
    inversion HI; subst. inversion HD; subst. cbn [rsizes fold_right length] in Hf2. fold (rsizes r) in Hf2.
    pose proof (rsize_pos c).
    split; [apply H1; [assumption|lia]|apply IHl; [assumption|assumption|lia]]. }
  apply HL; [apply Forall_rev; exact IH|apply Forall_rev; exact Hks|].
  rewrite rsizes_rev. lia.
Qed.

(** a property of all nodes *)
Fixpoint rall (P : N -> pay -> list N -> Prop) (r : rose) : Prop :=
  match r with RN i a ks => P i a (map ridx ks) /\ (fix go (l : list rose) : Prop := match l with [] => True | x :: t => rall P x /\ go t end) ks end.
Definition ralll (P : N -> pay -> list N -> Prop) (l : list rose) : Prop := Forall (rall P) l.

Lemma rall_eq P i a ks : rall P (RN i a ks) <-> P i a (map ridx ks) /\ ralll P ks.
Proof.
  cbn [rall]. unfold ralll.
  assert (E : (fix go (l : list rose) : Prop := match l with [] => True | x :: t => rall P x /\ go t end) ks <-> Forall (rall P) ks).
  { clear. induction ks as [|x t IH].
    - split; intros _; [constructor|exact I].
    - split; intros H.
      + destruct H as [H1 H2]. constructor; [exact H1|apply IH; exact H2].
      + inversion H; subst. split; [assumption|]. apply IH. assumption. }
  rewrite E. reflexivity.
Qed.

Lemma rall_lookup g pl P : forall r, Desc g pl r -> rall P r -> forall x, In x (rnodes r) ->
  exists a, pget pl x = Some a /\ P x a (kids g x).
Proof.
  induction r as [i a ks IH] using rose_ind2. intros Hd Ha x Hx. destruct (Desc_inv _ _ _ _ _ Hd) as (Hp & Hk & Hks).
  apply rall_eq in Ha. destruct Ha as (Hpi & Hal).
  rewrite rnodes_eq in Hx. destruct Hx as [<-|Hx]; [exists a; split; [exact Hp|rewrite Hk; exact Hpi]|].
  unfold rnodesl in Hx. apply in_flat_map in Hx. destruct Hx as (c & Hc & Hxc).
  unfold ralll in Hal. rewrite Forall_forall in IH, Hks, Hal. apply (IH c Hc (Hks c Hc) (Hal c Hc) x Hxc).
Qed.

(** a property of all sub-trees *)
Inductive rallr (P : rose -> Prop) : rose -> Prop :=
| rallr_node i a ks : P (RN i a ks) -> Forall (rallr P) ks -> rallr P (RN i a ks).

Lemma rallr_inv P i a ks : rallr P (RN i a ks) -> P (RN i a ks) /\ Forall (rallr P) ks.
Proof. intros H. inversion H; subst. auto. Qed.

Lemma rallr_lookup g pl P : forall r, Desc g pl r -> rallr P r -> forall x, In x (rnodes r) ->
  exists a ks, Desc g pl (RN x a ks) /\ P (RN x a ks).
Proof.
  induction r as [i a ks IH] using rose_ind2. intros Hd Ha x Hx. destruct (Desc_inv _ _ _ _ _ Hd) as (Hp & Hk & Hks).
  apply rallr_inv in Ha. destruct Ha as (Hpi & Hal).
  rewrite rnodes_eq in Hx. destruct Hx as [<-|Hx]; [exists a, ks; auto|].
  unfold rnodesl in Hx. apply in_flat_map in Hx. destruct Hx as (c & Hc & Hxc).
  rewrite Forall_forall in IH, Hks, Hal. apply (IH c Hc (Hks c Hc) (Hal c Hc) x Hxc).
Qed.
