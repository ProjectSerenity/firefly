(** Whole-parser invariants of Aml/Parser.v (all passes of ParseAML), used by Props/C12.v:

    - the reader invariant ([reader_wf], data / length untouched) holds at every state the parser reaches, so
      (with [reader_safe]) every byte the parser reads lies inside the table;
    - every []byte stored in the object pool ([VBytes]) lies inside the table it aliases.

    The proof is a Hoare-style argument: an invariant [Inv] on parser states, a rule for [bindM], one lemma
    per primitive, and an induction on the fuel for each block of mutually recursive functions. *)
From Coq Require Import NArith ZArith List Bool Lia.
From Coq Require Import ZifyBool ZifyN ZifyNat.
From FF Require Import Lib.Word Gen.Consts_device_acpi_aml Aml.Stream Aml.Lex Aml.LexProofs Aml.Tree Aml.Parser.
Import ListNotations.
Local Open Scope N_scope.

(** ---- values that alias the tables ---- *)
Section Inv.
Variable tbls : list (list N).        (* the images of the tables loaded so far, the current one last *)

Definition slice_ok (tbl : N) (sl : slice) : Prop :=
  exists d, nth_error tbls (N.to_nat tbl) = Some d /\ slice_inside (N.of_nat (length d)) sl.

Definition value_ok (v : option value) : Prop :=
  match v with Some (VBytes tbl sl) => slice_ok tbl sl | _ => True end.

Definition pool_ok (t : ObjectTree value) : Prop := Forall (fun o => value_ok (o_value o)) (t_pool t).

(** ---- the object tree operations keep the stored values ---- *)
Definition keeps (f : Object value -> Object value) : Prop := forall o, value_ok (o_value o) -> value_ok (o_value (f o)).

Lemma list_upd_Forall {A} (P : A -> Prop) (f : A -> A) : forall (l : list A) n,
  Forall P l -> (forall x, P x -> P (f x)) -> Forall P (list_upd l n f).
Proof.
  induction l as [|x l IH]; intros n H Hf; cbn [list_upd]; [destruct n; constructor|].
  inversion H; subst. destruct n; constructor; auto.
Qed.

Lemma wr_ok t p f t' : keeps f -> wr t p f = Ok t' -> pool_ok t -> pool_ok t'.
Proof.
  intros Hf H Hp. unfold wr in H. destruct (deref t p) as [o| |]; try discriminate. cbn [bind] in H.
  inversion H; subst. unfold pool_ok. cbn [t_pool]. apply list_upd_Forall; auto.
Qed.

Lemma deref_ok t p o : deref t p = Ok o -> pool_ok t -> value_ok (o_value o).
Proof.
  unfold deref. intros H Hp. destruct (nth_error (t_pool t) (N.to_nat p)) eqn:E; try discriminate.
  inversion H; subst. unfold pool_ok in Hp. rewrite Forall_forall in Hp. apply Hp. eapply nth_error_In; eauto.
Qed.

Lemma keeps_link f : (forall o, o_value (f o) = o_value o) -> keeps f.
Proof. intros H o Ho. rewrite H. exact Ho. Qed.

(** inversion of [bind] on outcomes *)
Lemma bind_Ok {A B} (m : outcome A) (f : A -> outcome B) b : bind m f = Ok b -> exists a, m = Ok a /\ f a = Ok b.
Proof. destruct m; cbn; intros H; try discriminate. eauto. Qed.

(** [tpres f]: the tree transformer keeps [pool_ok] *)
Definition tpres (f : ObjectTree value -> outcome (ObjectTree value)) : Prop :=
  forall t t', f t = Ok t' -> pool_ok t -> pool_ok t'.

(** step through the chains of rd / wr / ObjectAt_deref binds in the hypotheses *)
Ltac tstep1 :=
  match goal with
  | H : bind _ _ = Ok _ |- _ =>
      let a := fresh "a" in let H1 := fresh "H1" in
      apply bind_Ok in H; destruct H as (a & H1 & H)
  | H : (if ?c then _ else _) = Ok _ |- _ => destruct c
  | H : Ok _ = Ok _ |- _ => inversion H; subst; clear H
  | H : Panic = Ok _ |- _ => discriminate H
  end.
Ltac tstep H := repeat tstep1.

Ltac keeps_solve := apply keeps_link; intros; reflexivity.

Ltac wr_chain :=
  repeat match goal with
  | H : wr ?t ?p ?f = Ok ?t', Hp : pool_ok ?t |- _ =>
      let Hn := fresh "Hp" in
      assert (Hn : pool_ok t') by (eapply wr_ok; [|exact H|exact Hp]; keeps_solve);
      clear H
  end.

Lemma append_ok obj arg : tpres (fun t => append t obj arg).
Proof.
  intros t t' H Hp. unfold append in H. tstep H; wr_chain; try assumption;
    try (eapply wr_ok; [|eassumption|eassumption]; keeps_solve).
Qed.

Lemma appendAfter_ok obj arg nextTo : tpres (fun t => appendAfter t obj arg nextTo).
Proof.
  intros t t' H Hp. unfold appendAfter in H. tstep H.
  - eapply append_ok; eauto.
  - wr_chain; try assumption; try (eapply wr_ok; [|eassumption|eassumption]; keeps_solve).
Qed.

Lemma detach_ok obj arg : tpres (fun t => detach t obj arg).
Proof.
  intros t t' H Hp. unfold detach in H. tstep H; wr_chain; try assumption;
    try (eapply wr_ok; [|eassumption|eassumption]; keeps_solve).
Qed.

Lemma free_ok obj : tpres (fun t => free t obj).
Proof.
  intros t t' H Hp. unfold free in H. tstep H; try discriminate.
  all: repeat match goal with
       | Hd : detach ?t ?a ?b = Ok ?t', Hp : pool_ok ?t |- _ =>
           let Hn := fresh "Hp" in assert (Hn : pool_ok t') by (eapply detach_ok; eauto); clear Hd
       end; wr_chain; unfold pool_ok in *; cbn [t_pool] in *; assumption.
Qed.

Lemma newObject_ok t opcode th t' p : newObject t opcode th = Ok (t', p) -> pool_ok t -> pool_ok t'.
Proof.
  intros H Hp. unfold newObject in H.
  apply bind_Ok in H. destruct H as ([t1 p1] & H1 & H).
  apply bind_Ok in H. destruct H as (info & H2 & H).
  apply bind_Ok in H. destruct H as (t2 & H3 & H). inversion H; subst; clear H.
  assert (Hp1 : pool_ok t1).
  { destruct (t_free t =? InvalidIndex).
    - inversion H1; subst. unfold pool_ok in *. cbn [t_pool]. apply Forall_app. split; auto.
      repeat constructor.
    - apply bind_Ok in H1. destruct H1 as (o & Hd & H1). inversion H1; subst. exact Hp. }
  eapply wr_ok; [|exact H3|exact Hp1]. intros o _. exact I.
Qed.

(** ---- the invariant on parser states ---- *)
Definition cur : N := N.of_nat (length tbls) - 1.

Record Inv (s : pstate) : Prop := mkInv {
  inv_tbls : p_tables s = tbls;
  inv_wf : reader_wf (p_r s);
  inv_nowrap : no_wrap (p_r s);
  inv_data : nth_error tbls (N.to_nat cur) = Some (r_data (p_r s));
  inv_pool : pool_ok (p_tree s)
}.

(** Hoare triples with the fixed invariant and a pure postcondition on the result *)
Definition hoare {A} (m : M A) (Q : A -> Prop) : Prop :=
  forall s a s', Inv s -> m s = Ok (a, s') -> Inv s' /\ Q a.

Lemma hoare_weaken {A} (m : M A) (Q Q' : A -> Prop) : hoare m Q -> (forall a, Q a -> Q' a) -> hoare m Q'.
Proof. intros H HQ s a s' I E. destruct (H s a s' I E). auto. Qed.

Lemma hoare_ret {A} (a : A) (Q : A -> Prop) : Q a -> hoare (ret a) Q.
Proof. intros HQ s a' s' I E. inversion E; subst. auto. Qed.

Lemma hoare_bind {A B} (m : M A) (f : A -> M B) (Q : A -> Prop) (R : B -> Prop) :
  hoare m Q -> (forall a, Q a -> hoare (f a) R) -> hoare (bindM m f) R.
Proof.
  intros Hm Hf s b s' I E. unfold bindM in E. destruct (m s) as [[a s1]| |] eqn:Em; try discriminate.
  destruct (Hm s a s1 I Em) as (I1 & Qa). exact (Hf a Qa s1 b s' I1 E).
Qed.

Lemma hoare_panic {A} (Q : A -> Prop) : hoare panic Q.
Proof. intros s a s' _ E. discriminate. Qed.
Lemma hoare_outOfFuel {A} (Q : A -> Prop) : hoare outOfFuel Q.
Proof. intros s a s' _ E. discriminate. Qed.

Lemma hoare_get {A} (f : pstate -> A) : hoare (get f) (fun _ => True).
Proof. intros s a s' I E. inversion E; subst. auto. Qed.

Lemma hoare_lift {A} (o : outcome A) : hoare (lift o) (fun _ => True).
Proof. intros s a s' I E. unfold lift in E. destruct o; inversion E; subst. auto. Qed.

(** state updates that keep reader, tree and tables *)
Lemma Inv_same s s' : p_r s' = p_r s -> p_tree s' = p_tree s -> p_tables s' = p_tables s -> Inv s -> Inv s'.
Proof. intros E1 E2 E3 [I1 I2 I3 I4 I5]. constructor; rewrite ?E1, ?E2, ?E3; auto. Qed.

Lemma hoare_upd (f : pstate -> pstate) :
  (forall s, p_r (f s) = p_r s /\ p_tree (f s) = p_tree s /\ p_tables (f s) = p_tables s) ->
  hoare (fun s => Ok (tt, f s)) (fun _ => True).
Proof. intros H s a s' I E. inversion E; subst. destruct (H s) as (E1 & E2 & E3). split; auto. eapply Inv_same; eauto. Qed.

(** tree queries and updates *)
Lemma hoare_tq {A} (f : ObjectTree value -> outcome A) : hoare (tq f) (fun _ => True).
Proof. intros s a s' I E. unfold tq, lift in E. destruct (f (p_tree s)); inversion E; subst. auto. Qed.

Lemma hoare_tu f : tpres f -> hoare (tu f) (fun _ => True).
Proof.
  intros Hf s a s' [I1 I2 I3 I4 I5] E. unfold tu in E. destruct (f (p_tree s)) as [t| |] eqn:Ef; inversion E; subst.
  split; auto. constructor; cbn; auto. eapply Hf; eauto.
Qed.

Lemma hoare_rdo p : hoare (rdo p) (fun o => value_ok (o_value o)).
Proof.
  intros s a s' I E. unfold rdo, tq, lift in E. destruct (deref (p_tree s) p) as [o| |] eqn:Ed; inversion E; subst.
  split; auto. eapply deref_ok; eauto. apply I.
Qed.

Lemma hoare_wrf p f : keeps f -> hoare (wrf p f) (fun _ => True).
Proof. intros Hf. unfold wrf. apply hoare_tu. intros t t' H Hp. eapply wr_ok; eauto. Qed.

Lemma hoare_newObj op : hoare (newObj op) (fun _ => True).
Proof.
  intros s a s' [I1 I2 I3 I4 I5] E. unfold newObj in E.
  destruct (newObject (p_tree s) op (p_handle s)) as [[t p]| |] eqn:En; inversion E; subst.
  split; auto. constructor; cbn; auto. eapply newObject_ok; eauto.
Qed.

Lemma hoare_need o : hoare (need o) (fun _ => True).
Proof. destruct o; [apply hoare_ret; exact I|apply hoare_panic]. Qed.

End Inv.

(** ---- primitives that touch the reader ---- *)
Section Prims.
Variable tbls : list (list N).
Notation Inv := (Inv tbls).
Notation hoare := (@hoare tbls).
Notation cur := (cur tbls).
Notation slice_ok := (slice_ok tbls).
Notation value_ok := (value_ok tbls).

(** replacing the reader by one with the same data / length and a valid window keeps the invariant *)
Lemma Inv_reader s r1 :
  Inv s -> reader_wf r1 -> r_data r1 = r_data (p_r s) -> r_len r1 = r_len (p_r s) -> Inv (with_r s r1).
Proof.
  intros [I1 I2 I3 I4 I5] W D L. constructor; cbn; auto.
  - unfold no_wrap in *. rewrite L. exact I3.
  - rewrite D. exact I4.
Qed.

Lemma safe2_window {A} (f : reader -> outcome (A * bool * reader)) r a ok r1 :
  safe2 f -> reader_wf r -> f r = Ok (a, ok, r1) -> same_window r r1.
Proof.
  intros Hs W E. pose proof (Hs r r W W (sim_refl r)) as H. rewrite E in H. destruct H as (_ & _ & _ & A1 & _). exact A1.
Qed.

Lemma hoare_lex {A} (f : reader -> outcome (A * bool * reader)) : safe2 f -> hoare (lex f) (fun _ => True).
Proof.
  intros Hs s a s' I E. unfold lex in E. destruct (f (p_r s)) as [[[v ok] r1]| |] eqn:Ef; inversion E; subst.
  split; auto. pose proof (safe2_window f _ _ _ _ Hs (inv_wf _ _ I) Ef) as (D & L & P).
  apply Inv_reader; auto. eapply wf_same_window; [apply I|]. repeat split; auto.
Qed.

Lemma hoare_lex_slice (f : reader -> outcome (slice * bool * reader)) :
  safe2 f -> (f = parseString \/ f = parseNameString) -> hoare (lex f) (fun x => slice_ok cur (fst x)).
Proof.
  intros Hs Hf s a s' I E.
  destruct (hoare_lex f Hs s a s' I E) as (I' & _). split; auto.
  unfold lex in E. destruct (f (p_r s)) as [[[v ok] r1]| |] eqn:Ef; inversion E; subst. cbn [fst].
  destruct I as [I1 I2 I3 I4 I5].
  assert (SI : slice_inside (r_len (p_r s)) v).
  { destruct Hf as [-> | ->]; eapply lex_slices_inside; eauto. }
  exists (r_data (p_r s)). split; auto. destruct I2 as (W1 & _). rewrite <- W1. exact SI.
Qed.

Lemma hoare_readByteM : hoare readByteM (fun _ => True).
Proof.
  intros s a s' I E. unfold readByteM in E. destruct (readByte (p_r s)) as [[b r1]| |] eqn:Er; inversion E; subst.
  split; auto.
  destruct (readByte_total _ (inv_wf _ _ I)) as [(_ & R)|(_ & b' & _ & R & _)]; rewrite R in Er; inversion Er; subst.
  - destruct s; exact I.
  - apply Inv_reader; auto. eapply wf_same_window; [apply I|apply same_window_set_offset].
Qed.

Lemma hoare_rq {A} (f : reader -> A) : hoare (rq f) (fun _ => True).
Proof. apply hoare_get. Qed.

Lemma hoare_ru g : (forall r, reader_wf r -> reader_wf (g r) /\ r_data (g r) = r_data r /\ r_len (g r) = r_len r) ->
  hoare (ru g) (fun _ => True).
Proof.
  intros Hg s a s' I E. inversion E; subst. split; auto.
  destruct (Hg _ (inv_wf _ _ I)) as (W & D & L). apply Inv_reader; auto.
Qed.

Lemma rpres_setOffset o r : reader_wf r -> reader_wf (setOffset r o) /\ r_data (setOffset r o) = r_data r /\ r_len (setOffset r o) = r_len r.
Proof. intros W. split; [|split; reflexivity]. eapply wf_same_window; [exact W|apply same_window_setOffset]. Qed.

Lemma rpres_unread r : reader_wf r -> reader_wf (fst (unreadByte r)) /\ r_data (fst (unreadByte r)) = r_data r /\ r_len (fst (unreadByte r)) = r_len r.
Proof.
  intros W. unfold unreadByte. destruct (r_offset r =? 0); cbn [fst]; [auto|].
  split; [|split; reflexivity]. eapply wf_same_window; [exact W|apply same_window_set_offset].
Qed.

Lemma rpres_setPkgEnd e r : reader_wf r -> reader_wf (fst (setPkgEnd r e)) /\ r_data (fst (setPkgEnd r e)) = r_data r /\ r_len (fst (setPkgEnd r e)) = r_len r.
Proof.
  intros (W1 & W2 & W3 & W4). unfold setPkgEnd. destruct (r_len r <? e) eqn:E; cbn [fst]; [repeat split; auto|].
  apply N.ltb_ge in E. repeat split; cbn; auto.
Qed.

Lemma hoare_setOffsetM o : hoare (setOffsetM o) (fun _ => True).
Proof. apply hoare_ru. intros r W. apply rpres_setOffset; auto. Qed.

Lemma hoare_setPkgEndM e : hoare (setPkgEndM e) (fun _ => True).
Proof.
  intros s a s' I E. unfold setPkgEndM in E. destruct (setPkgEnd (p_r s) e) as [r ok] eqn:Es. inversion E; subst.
  split; auto. destruct (rpres_setPkgEnd e _ (inv_wf _ _ I)) as (W & D & L). rewrite Es in *. cbn [fst] in *.
  apply Inv_reader; auto.
Qed.

Lemma hoare_pushPkgEnd e : hoare (pushPkgEnd e) (fun _ => True).
Proof.
  unfold pushPkgEnd. eapply hoare_bind with (Q := fun _ => True).
  - apply hoare_upd. intros s. repeat split.
  - intros _ _. apply hoare_setPkgEndM.
Qed.

Lemma hoare_popPkgEnd : hoare popPkgEnd (fun _ => True).
Proof.
  intros s a s' I E. unfold popPkgEnd in E.
  set (st := match p_pkgEndStack s with [] => [] | _ :: rest => rest end) in *.
  assert (I1 : Inv (with_pkgEndStack s st)) by (eapply Inv_same; [| | |exact I]; reflexivity).
  destruct st as [|top rest]; inversion E; subst; split; auto.
  destruct (rpres_setPkgEnd top _ (inv_wf _ _ I1)) as (W & D & L).
  apply Inv_reader; auto.
Qed.

(** facts about the current reader *)
Lemma hoare_get_r : hoare (get p_r) (fun r => reader_wf r /\ no_wrap r /\ nth_error tbls (N.to_nat cur) = Some (r_data r)).
Proof. intros s a s' I E. inversion E; subst. split; auto. destruct I; auto. Qed.

Lemma hoare_curTable : hoare curTable (fun tbl => tbl = cur).
Proof.
  intros s a s' I E. unfold curTable, get in E. inversion E; subst. split; auto.
  rewrite (inv_tbls _ _ I). reflexivity.
Qed.

Lemma hoare_lift_eq {A} (o : outcome A) : hoare (lift o) (fun a => o = Ok a).
Proof. intros s a s' I E. unfold lift in E. destruct o; inversion E; subst. auto. Qed.

Lemma hoare_bytesOf tbl sl : hoare (bytesOf tbl sl) (fun _ => True).
Proof. unfold bytesOf. intros s a s' I E. unfold lift in E. destruct (slice_bytes s tbl sl); inversion E; subst. auto. Qed.

(** stacks *)
Lemma hoare_scopeEnter i : hoare (scopeEnter i) (fun _ => True).
Proof. apply hoare_upd. intros s. repeat split. Qed.
Lemma hoare_scopeExit : hoare scopeExit (fun _ => True).
Proof.
  intros s a s' I E. unfold scopeExit in E. destruct (p_scopeStack s); inversion E; subst. split; auto.
  eapply Inv_same; [| | |exact I]; reflexivity.
Qed.

(** values *)
Lemma keeps_set_value v : value_ok (Some v) -> keeps tbls (set_value (Some v)).
Proof. intros H o _. exact H. Qed.

Lemma value_ok_bytes tbl sl : slice_ok tbl sl -> value_ok (Some (bytesValue tbl sl)).
Proof.
  intros H. unfold bytesValue. destruct (s_ptr sl); cbn; auto.
  destruct H as (d & Hd & _). exists d. split; auto. left. reflexivity.
Qed.

End Prims.

(** ---- automation ---- *)
Ltac keeps_any tbls :=
  first [ apply keeps_link; intros; reflexivity
        | apply keeps_set_value; first [ exact I | apply value_ok_bytes; cbn [fst] in *; subst; eassumption ] ].

Ltac hprim tbls :=
  lazymatch goal with
  | |- hoare _ (ret _) _ => apply hoare_ret; exact I
  | |- hoare _ panic _ => apply hoare_panic
  | |- hoare _ outOfFuel _ => apply hoare_outOfFuel
  | |- hoare _ (get _) _ => apply hoare_get
  | |- hoare _ (rq _) _ => apply hoare_rq
  | |- hoare _ eofM _ => apply hoare_rq
  | |- hoare _ offsetM _ => apply hoare_rq
  | |- hoare _ (tq _) _ => apply hoare_tq
  | |- hoare _ (rdf _ _) _ => apply hoare_tq
  | |- hoare _ (rdo _) _ => eapply hoare_weaken; [apply hoare_rdo|intros; exact I]
  | |- hoare _ (objectAt _) _ => apply hoare_get
  | |- hoare _ (need _) _ => apply hoare_need
  | |- hoare _ (newObj _) _ => apply hoare_newObj
  | |- hoare _ (wrf _ _) _ => apply hoare_wrf; keeps_any tbls
  | |- hoare _ (freeM _) _ => apply hoare_tu; apply free_ok
  | |- hoare _ (tu (fun t => appendAfter t _ _ _)) _ => apply hoare_tu; apply appendAfter_ok
  | |- hoare _ (tu (fun t => append t _ _)) _ => apply hoare_tu; apply append_ok
  | |- hoare _ (tu (fun t => detach t _ _)) _ => apply hoare_tu; apply detach_ok
  | |- hoare _ readByteM _ => apply hoare_readByteM
  | |- hoare _ (setOffsetM _) _ => apply hoare_setOffsetM
  | |- hoare _ (setPkgEndM _) _ => apply hoare_setPkgEndM
  | |- hoare _ (pushPkgEnd _) _ => apply hoare_pushPkgEnd
  | |- hoare _ popPkgEnd _ => apply hoare_popPkgEnd
  | |- hoare _ (scopeEnter _) _ => apply hoare_scopeEnter
  | |- hoare _ scopeExit _ => apply hoare_scopeExit
  | |- hoare _ curTable _ => eapply hoare_weaken; [apply hoare_curTable|intros; exact I]
  | |- hoare _ (bytesOf _ _) _ => apply hoare_bytesOf
  | |- hoare _ (lift _) _ => apply hoare_lift
  | |- hoare _ (ru (fun r => fst (unreadByte r))) _ => apply hoare_ru; intros; apply rpres_unread; assumption
  | |- hoare _ (ru (fun r => setOffset r _)) _ => apply hoare_ru; intros; apply rpres_setOffset; assumption
  | |- hoare _ (lex parsePkgLength) _ => apply hoare_lex; apply safe_safe2, safe_parsePkgLength
  | |- hoare _ (lex (parseNumConstant _)) _ => apply hoare_lex; apply safe_safe2, safe_parseNumConstant
  | |- hoare _ (lex nextOpcode) _ => apply hoare_lex; apply safe_safe2, safe_nextOpcode
  | |- hoare _ (lex peekNextOpcode) _ => apply hoare_lex; apply safe_safe2, safe_peekNextOpcode
  | |- hoare _ (lex parseString) _ => apply hoare_lex; apply safe2_parseString
  | |- hoare _ (lex parseNameString) _ => apply hoare_lex; apply safe2_parseNameString
  | |- hoare _ (fun s => Ok (tt, _)) _ => apply hoare_upd; intros; repeat split
  end.

(** one decomposition step *)
Ltac hstep tbls :=
  lazymatch goal with
  | |- hoare _ (bindM (lex parseString) _) _ =>
      eapply hoare_bind; [apply hoare_lex_slice; [apply safe2_parseString|left; reflexivity]|intros [? ?] ?]
  | |- hoare _ (bindM (lex parseNameString) _) _ =>
      eapply hoare_bind; [apply hoare_lex_slice; [apply safe2_parseNameString|right; reflexivity]|intros [? ?] ?]
  | |- hoare _ (bindM curTable _) _ => eapply hoare_bind; [apply hoare_curTable|intros ? ?]
  | |- hoare _ (bindM (get p_r) _) _ => eapply hoare_bind; [apply hoare_get_r|intros ? (? & ? & ?)]
  | |- hoare _ (bindM (rdo _) _) _ => eapply hoare_bind; [apply hoare_rdo|intros ? ?]
  | |- hoare _ (bindM (lift (dataPtr _)) _) _ => eapply hoare_bind; [apply hoare_lift_eq|intros ? ?]
  | |- hoare _ (bindM _ _) _ => eapply hoare_bind with (Q := fun _ => True); [|intros ? _]
  | |- hoare _ (if ?c then _ else _) _ => destruct c eqn:?
  | |- hoare _ (match ?x with _ => _ end) _ => destruct x eqn:?
  | |- hoare _ (let _ := _ in _) _ => cbv zeta
  | |- _ => hprim tbls
  end.

Ltac hauto tbls := repeat (hstep tbls).

(** ---- the parser functions ---- *)
Section Funs.
Variable tbls : list (list N).
Notation hoareT m := (hoare tbls m (fun _ => True)).

Lemma hoare_info i : hoareT (info i).
Proof. unfold info. destruct (opInfo i); hauto tbls. Qed.
Lemma hoare_tableIndex op b : hoareT (tableIndex op b).
Proof. unfold tableIndex. destruct (opcodeTableIndex op b); hauto tbls. Qed.
Lemma hoare_objectAt' i : hoareT (objectAt' i).
Proof. unfold objectAt'. hauto tbls. Qed.
Lemma hoare_appendM o a : hoareT (appendM o a).
Proof. unfold appendM. hauto tbls. Qed.
Lemma hoare_detachM o a : hoareT (detachM o a).
Proof. unfold detachM. hauto tbls. Qed.
Lemma hoare_scopeCurrent : hoareT scopeCurrent.
Proof. unfold scopeCurrent. hauto tbls. Qed.

Ltac hfun :=
  lazymatch goal with
  | |- hoare _ (info _) _ => apply hoare_info
  | |- hoare _ (tableIndex _ _) _ => apply hoare_tableIndex
  | |- hoare _ (objectAt' _) _ => apply hoare_objectAt'
  | |- hoare _ (appendM _ _) _ => apply hoare_appendM
  | |- hoare _ (detachM _ _) _ => apply hoare_detachM
  | |- hoare _ scopeCurrent _ => apply hoare_scopeCurrent
  end.
Ltac hgo := repeat (first [hfun | hstep tbls]).

(** the byte list stored by parseByteList lies inside the current package *)
Lemma hoare_parseByteList obj dataLen : hoareT (parseByteList obj dataLen).
Proof.
  unfold parseByteList.
  eapply hoare_bind; [apply hoare_get_r|intros r (W & NW & D)].
  destruct ((r_pkgEnd r <? r_offset r) || (w32 (r_pkgEnd r + two32 - r_offset r) <? dataLen)) eqn:Echk; [hgo|].
  apply orb_false_iff in Echk. destruct Echk as (E1 & E2). apply N.ltb_ge in E1. apply N.ltb_ge in E2.
  eapply hoare_bind with (Q := fun _ => True); [hgo|intros _ _].
  eapply hoare_bind with (Q := fun _ => True); [hgo|intros idx _].
  eapply hoare_bind with (Q := fun _ => True); [hgo|intros _ _].
  eapply hoare_bind; [apply hoare_lift_eq|intros ptr Hptr].
  eapply hoare_bind; [apply hoare_curTable|intros tbl ->].
  eapply hoare_bind with (Q := fun _ => True); [|intros _ _; hgo].
  apply hoare_wrf. apply keeps_set_value. apply value_ok_bytes.
  exists (r_data r). split; auto.
  destruct W as (W1 & W2 & W3 & W4). rewrite <- W1.
  unfold slice_inside. cbn [s_ptr s_len].
  unfold dataPtr, eof in Hptr.
  destruct (r_pkgEnd r <=? r_offset r) eqn:Ee.
  - inversion Hptr; subst. apply N.leb_le in Ee. left.
    assert (r_pkgEnd r = r_offset r) by lia. unfold w32, two32 in *. lia.
  - apply N.leb_gt in Ee. destruct (r_offset r <? r_len r); inversion Hptr; subst.
    right. exists (r_offset r). split; auto. unfold w32, two32 in *. lia.
Qed.

Lemma hoare_parseSimpleArg ty : hoareT (parseSimpleArg ty).
Proof. unfold parseSimpleArg. hgo. Qed.

Lemma hoare_fieldByte : hoareT fieldByte.
Proof. unfold fieldByte. hgo. Qed.

Lemma hoare_readName_go cnt : forall i field, hoareT (readName_go cnt i field).
Proof. induction cnt as [|cnt IH]; intros i field; cbn [readName_go]; hgo. apply IH. Qed.

Lemma hoare_fieldElements_go fuel : forall curObj f, hoareT (fieldElements_go fuel curObj f).
Proof.
  induction fuel as [|fuel IH]; intros curObj f; cbn [fieldElements_go]; [hgo|].
  repeat (first [hfun | hstep tbls | apply IH | apply hoare_fieldByte | apply hoare_readName_go | apply hoare_parseByteList]).
Qed.

Lemma hoare_parseFieldElements curObj : hoareT (parseFieldElements curObj).
Proof.
  unfold parseFieldElements, streamFuel.
  repeat (first [hfun | hstep tbls | apply hoare_fieldElements_go]).
Qed.

Lemma hoare_methodArgCountPanic tg : hoareT (methodArgCountPanic tg).
Proof. unfold methodArgCountPanic. hgo. Qed.

(** first pass / deferred pass: the nine mutually recursive functions *)
Definition block1 (fuel : nat) : Prop :=
  hoareT (parseNextObject fuel) /\ (forall c, hoareT (parseObjectArgs fuel c)) /\
  (forall inf c i, hoareT (parseArgs fuel inf c i)) /\ (forall inf c ty, hoareT (parseArg fuel inf c ty)) /\
  hoareT (termList_go fuel) /\ hoareT (parseNamePathOrMethodCall fuel) /\ (forall n, hoareT (callArgs_go fuel n)) /\
  (forall c, hoareT (parseStrictTermArg fuel c)) /\ hoareT (parseTarget fuel).

Ltac hrec H1 H2 H3 H4 H5 H6 H7 H8 H9 :=
  lazymatch goal with
  | |- hoare _ (parseNextObject _) _ => apply H1
  | |- hoare _ (parseObjectArgs _ _) _ => apply H2
  | |- hoare _ (parseArgs _ _ _ _) _ => apply H3
  | |- hoare _ (parseArg _ _ _ _) _ => apply H4
  | |- hoare _ (termList_go _) _ => apply H5
  | |- hoare _ (parseNamePathOrMethodCall _) _ => apply H6
  | |- hoare _ (callArgs_go _ _) _ => apply H7
  | |- hoare _ (parseStrictTermArg _ _) _ => apply H8
  | |- hoare _ (parseTarget _) _ => apply H9
  | |- hoare _ (parseSimpleArg _) _ => apply hoare_parseSimpleArg
  | |- hoare _ (parseByteList _ _) _ => apply hoare_parseByteList
  | |- hoare _ (parseFieldElements _) _ => apply hoare_parseFieldElements
  | |- hoare _ (methodArgCountPanic _) _ => apply hoare_methodArgCountPanic
  end.

Lemma block1_all : forall fuel, block1 fuel.
Proof.
  induction fuel as [|fuel (H1 & H2 & H3 & H4 & H5 & H6 & H7 & H8 & H9)].
  - unfold block1. repeat match goal with |- _ /\ _ => split end; intros; cbn; apply hoare_outOfFuel.
  - unfold block1. repeat match goal with |- _ /\ _ => split end; intros.
    + cbn [parseNextObject]. repeat (first [hfun | hstep tbls | hrec H1 H2 H3 H4 H5 H6 H7 H8 H9]).
    + cbn [parseObjectArgs]. repeat (first [hfun | hstep tbls | hrec H1 H2 H3 H4 H5 H6 H7 H8 H9]).
    + cbn [parseArgs]. repeat (first [hfun | hstep tbls | hrec H1 H2 H3 H4 H5 H6 H7 H8 H9]).
    + cbn [parseArg]. repeat (first [hfun | hstep tbls | hrec H1 H2 H3 H4 H5 H6 H7 H8 H9]).
    + cbn [termList_go]. repeat (first [hfun | hstep tbls | hrec H1 H2 H3 H4 H5 H6 H7 H8 H9]).
    + cbn [parseNamePathOrMethodCall]. repeat (first [hfun | hstep tbls | hrec H1 H2 H3 H4 H5 H6 H7 H8 H9]).
    + cbn [callArgs_go]. repeat (first [hfun | hstep tbls | hrec H1 H2 H3 H4 H5 H6 H7 H8 H9]).
    + cbn [parseStrictTermArg]. repeat (first [hfun | hstep tbls | hrec H1 H2 H3 H4 H5 H6 H7 H8 H9]).
    + cbn [parseTarget]. repeat (first [hfun | hstep tbls | hrec H1 H2 H3 H4 H5 H6 H7 H8 H9]).
Qed.

Ltac hmore :=
  first [ hfun | hstep tbls
        | lazymatch goal with
          | |- hoare _ (parseSimpleArg _) _ => apply hoare_parseSimpleArg
          | |- hoare _ (parseByteList _ _) _ => apply hoare_parseByteList
          | |- hoare _ (parseFieldElements _) _ => apply hoare_parseFieldElements
          | |- hoare _ (methodArgCountPanic _) _ => apply hoare_methodArgCountPanic
          end ].

Lemma hoare_parseNextObject fuel : hoareT (parseNextObject fuel).
Proof. apply (block1_all fuel). Qed.
Lemma hoare_parseObjectArgs fuel c : hoareT (parseObjectArgs fuel c).
Proof. apply (block1_all fuel). Qed.

Lemma hoare_objectList_inner fuel : hoareT (objectList_inner fuel).
Proof. induction fuel as [|fuel IH]; cbn [objectList_inner]; repeat (first [hmore | apply IH | apply hoare_parseNextObject]). Qed.

Lemma hoare_parseObjectList fuel : hoareT (parseObjectList fuel).
Proof. induction fuel as [|fuel IH]; cbn [parseObjectList]; repeat (first [hmore | apply IH | apply hoare_objectList_inner]). Qed.

Lemma hoare_attachSiblings_go fuel : forall a b c d e, hoareT (attachSiblings_go fuel a b c d e).
Proof. induction fuel as [|fuel IH]; intros; cbn [attachSiblings_go]; repeat (first [hmore | apply IH]). Qed.

Lemma hoare_attachSiblingsAsArgs fuel a b c d : hoareT (attachSiblingsAsArgs fuel a b c d).
Proof. unfold attachSiblingsAsArgs. repeat (first [hmore | apply hoare_attachSiblings_go]). Qed.

Lemma hoare_setNameFrom obj bytes : hoareT (setNameFrom obj bytes).
Proof. unfold setNameFrom. repeat hmore. Qed.

Lemma hoare_connectNamed fuel :
  (forall i, hoareT (connectNamedObjArgs fuel i)) /\ (forall o i, hoareT (connectNamed_loop fuel o i)).
Proof.
  induction fuel as [|fuel (H1 & H2)]; (split; intros; [cbn [connectNamedObjArgs]|cbn [connectNamed_loop]]);
    repeat (first [hmore | apply H1 | apply H2 | apply hoare_attachSiblingsAsArgs | apply hoare_setNameFrom]).
Qed.

Lemma hoare_nestedScope_go fuel : forall i, hoareT (nestedScope_go fuel i).
Proof. induction fuel as [|fuel IH]; intros; cbn [nestedScope_go]; repeat (first [hmore | apply IH]). Qed.

Lemma hoare_scopeOf i : hoareT (scopeOf i).
Proof. unfold scopeOf, poolFuel. repeat (first [hmore | apply hoare_nestedScope_go]). Qed.

Lemma hoare_moveContents_go fuel : forall a b c, hoareT (moveContents_go fuel a b c).
Proof. induction fuel as [|fuel IH]; intros; cbn [moveContents_go]; repeat (first [hmore | apply IH]). Qed.

Lemma hoare_mergeScope fuel :
  (forall i, hoareT (mergeScopeDirectives fuel i)) /\ (forall i r, hoareT (mergeScope_loop fuel i r)).
Proof.
  induction fuel as [|fuel (H1 & H2)]; (split; intros; [cbn [mergeScopeDirectives]|cbn [mergeScope_loop]]);
    unfold poolFuel;
    repeat (first [hmore | apply H1 | apply H2 | apply hoare_scopeOf | apply hoare_moveContents_go]).
Qed.

Lemma hoare_insideSelf_go fuel : forall a o, hoareT (insideSelf_go fuel a o).
Proof. induction fuel as [|fuel IH]; intros; cbn [insideSelf_go]; repeat (first [hmore | apply IH]). Qed.

(** the tail of a stored name (relocateNamedObjects keeps the last segment) stays inside the table *)
Lemma reslice_ok tbl sl : slice_ok tbls tbl sl -> aml_amlNameLen <? s_len sl = true ->
  slice_ok tbls tbl (mkSlice (match s_ptr sl with Some p => Some (p + (s_len sl - aml_amlNameLen)) | None => None end) aml_amlNameLen).
Proof.
  intros (d & Hd & Hin) Hlt. apply N.ltb_lt in Hlt. exists d. split; auto.
  unfold slice_inside in *. cbn [s_ptr s_len]. unfold aml_amlNameLen in *.
  destruct Hin as [H0|(p & Hp & Hle)]; [lia|].
  right. rewrite Hp. exists (p + (s_len sl - 4)). split; auto. lia.
Qed.

Lemma valueBytes_ok (o : Object value) tbl sl : value_ok tbls (o_value o) -> valueBytes o = Some (tbl, sl) -> slice_ok tbls tbl sl.
Proof.
  unfold valueBytes. destruct (o_value o) as [[n|tb s|i|f]|]; intros H E; inversion E; subst. exact H.
Qed.

Lemma hoare_relocate fuel :
  (forall i, hoareT (relocateNamedObjects fuel i)) /\ (forall i r, hoareT (relocate_loop fuel i r)).
Proof.
  induction fuel as [|fuel (H1 & H2)]; (split; intros; [cbn [relocateNamedObjects]|cbn [relocate_loop]]);
    unfold poolFuel;
    repeat (first [ match goal with
                    | |- hoare _ (wrf _ (set_value (Some (bytesValue _ (mkSlice _ aml_amlNameLen))))) _ =>
                        apply hoare_wrf; apply keeps_set_value; apply value_ok_bytes; apply reslice_ok;
                        [eapply valueBytes_ok; [|eassumption]; cbv beta in *; assumption|assumption]
                    end
                  | hmore | apply H1 | apply H2 | apply hoare_scopeOf | apply hoare_insideSelf_go]).
Qed.

Lemma hoare_popAll_go fuel : hoareT (popAll_go fuel).
Proof. induction fuel as [|fuel IH]; cbn [popAll_go]; repeat (first [hmore | apply IH]). Qed.

Lemma hoare_deferred fuel : forall pf,
  (forall i, hoareT (parseDeferredBlocks fuel pf i)) /\ (forall i, hoareT (deferred_loop fuel pf i)).
Proof.
  induction fuel as [|fuel IH]; intros pf; (split; intros; [cbn [parseDeferredBlocks]|cbn [deferred_loop]]);
    repeat (first [hmore | apply (IH pf) | apply hoare_parseObjectArgs | apply hoare_popAll_go]).
Qed.

Lemma hoare_connectNonNamedObjArg fuel a b : hoareT (connectNonNamedObjArg fuel a b).
Proof. unfold connectNonNamedObjArg. repeat (first [hmore | apply hoare_attachSiblingsAsArgs]). Qed.

Lemma hoare_connectNonNamed fuel :
  (forall i, hoareT (connectNonNamedObjArgs fuel i)) /\ (forall o i, hoareT (connectNonNamed_loop fuel o i)).
Proof.
  induction fuel as [|fuel (H1 & H2)]; (split; intros; [cbn [connectNonNamedObjArgs]|cbn [connectNonNamed_loop]]);
    repeat (first [hmore | apply H1 | apply H2 | apply hoare_connectNonNamedObjArg]).
Qed.

Lemma hoare_resolveCalls fuel :
  (forall i, hoareT (resolveMethodCalls fuel i)) /\ (forall o i, hoareT (resolveCalls_loop fuel o i)).
Proof.
  induction fuel as [|fuel (H1 & H2)]; (split; intros; [cbn [resolveMethodCalls]|cbn [resolveCalls_loop]]);
    repeat (first [hmore | apply H1 | apply H2 | apply hoare_connectNonNamedObjArg | apply hoare_attachSiblingsAsArgs]).
Qed.

Lemma hoare_resolve_loop fuel : forall wf, hoareT (resolve_loop fuel wf).
Proof.
  induction fuel as [|fuel IH]; intros; cbn [resolve_loop];
    repeat (first [hmore | apply IH | apply (hoare_mergeScope wf) | apply (hoare_relocate wf)]).
Qed.

Lemma hoare_parseAML_body fuel : hoareT (parseAML_body fuel).
Proof.
  unfold parseAML_body.
  repeat (first [hmore | apply hoare_parseObjectList | apply (hoare_connectNamed fuel) | apply hoare_resolve_loop | apply (hoare_deferred fuel fuel) | apply (hoare_resolveCalls fuel) | apply (hoare_connectNonNamed fuel)]).
Qed.

End Funs.

(** ---- from one table to a sequence of tables ---- *)
Lemma slice_ok_app tbls more tbl sl : slice_ok tbls tbl sl -> slice_ok (tbls ++ more) tbl sl.
Proof.
  intros (d & Hd & Hin). exists d. split; auto. rewrite nth_error_app1; auto.
  apply nth_error_Some. congruence.
Qed.

Lemma pool_ok_app tbls more t : pool_ok tbls t -> pool_ok (tbls ++ more) t.
Proof.
  unfold pool_ok. intros H. eapply Forall_impl; [|exact H]. intros o Ho.
  unfold value_ok in *. destruct (o_value o) as [[n|tb s|i|f]|]; auto. apply slice_ok_app; auto.
Qed.

(** a table image the invariant can start from: bytes, and not within 1 KiB of 4 GiB *)
Definition image_ok (data : list N) : Prop :=
  Forall (fun b => b < 256) data /\ N.of_nat (length data) + 1024 <= two32.

Lemma init_state_Inv tree earlier handle data :
  image_ok data -> pool_ok earlier tree -> Inv (earlier ++ [data]) (init_state tree earlier handle data).
Proof.
  intros (Hb & Hl) Hp. unfold init_state. rewrite init_reader_eq.
  set (n := N.of_nat (length data)) in *.
  unfold setPkgEnd. cbn [r_len r_data r_pkgEnd r_offset]. rewrite N.ltb_irrefl. cbn [fst].
  constructor; cbn [p_tables p_r p_tree with_r with_pkgEndStack set_pkgEnd_raw r_len r_data r_pkgEnd r_offset].
  - reflexivity.
  - unfold reader_wf, set_pkgEnd_raw. cbn [r_len r_data r_pkgEnd]. split; [reflexivity|split; [lia|split; [unfold two32 in *; lia|exact Hb]]].
  - unfold no_wrap, set_pkgEnd_raw. cbn [r_len]. exact Hl.
  - unfold cur. rewrite app_length. cbn [length].
    replace (N.to_nat (N.of_nat (length earlier + 1) - 1)) with (length earlier) by lia.
    rewrite nth_error_app2 by lia. rewrite Nat.sub_diag. reflexivity.
  - apply pool_ok_app. exact Hp.
Qed.

(** ParseAML keeps every stored []byte inside its table and the reader inside the table, whatever it returns *)
Theorem parseAML_inv tree earlier handle data b s :
  image_ok data -> pool_ok earlier tree -> parseAML tree earlier handle data = Ok (b, s) ->
  pool_ok (earlier ++ [data]) (p_tree s) /\ reader_wf (p_r s) /\ r_data (p_r s) = data.
Proof.
  intros Hi Hp E. unfold parseAML in E.
  destruct (hoare_parseAML_body (earlier ++ [data]) _ _ _ _ (init_state_Inv tree earlier handle data Hi Hp) E) as ([I1 I2 I3 I4 I5] & _).
  split; [exact I5|split; [exact I2|]].
  unfold cur in I4. rewrite app_length in I4. cbn [length] in I4.
  replace (N.to_nat (N.of_nat (length earlier + 1) - 1)) with (length earlier) in I4 by lia.
  rewrite nth_error_app2 in I4 by lia. rewrite Nat.sub_diag in I4. cbn in I4. congruence.
Qed.

(** the default scopes carry no values *)
Lemma newNamedObject_ok tbls t opc th nm t' p : newNamedObject t opc th nm = Ok (t', p) -> pool_ok tbls t -> pool_ok tbls t'.
Proof.
  intros H Hp. unfold newNamedObject in H. apply bind_Ok in H. destruct H as ([t1 p1] & H1 & H).
  apply bind_Ok in H. destruct H as (t2 & H2 & H). inversion H; subst.
  eapply wr_ok; [|exact H2|eapply newObject_ok; eauto]. apply keeps_link. reflexivity.
Qed.

Lemma append_scopes_ok tbls names : forall t root th t', append_scopes t root th names = Ok t' -> pool_ok tbls t -> pool_ok tbls t'.
Proof.
  induction names as [|nm names IH]; intros t root th t' H Hp; cbn [append_scopes] in H.
  - inversion H; subst; exact Hp.
  - apply bind_Ok in H. destruct H as ([t1 p] & H1 & H). apply bind_Ok in H. destruct H as (t2 & H2 & H).
    eapply IH; [exact H|]. eapply append_ok; [exact H2|]. eapply newNamedObject_ok; eauto.
Qed.

Lemma CreateDefaultScopes_ok tbls th t' : CreateDefaultScopes (@NewObjectTree value) th = Ok t' -> pool_ok tbls t'.
Proof.
  unfold CreateDefaultScopes. destruct Gen.Consts_aml_tree.tree_defaultScopeNames as [|rootName rest].
  - intros H. inversion H; subst. constructor.
  - intros H. apply bind_Ok in H. destruct H as ([t1 root] & H1 & H).
    eapply append_scopes_ok; [exact H|]. eapply newNamedObject_ok; [exact H1|]. constructor.
Qed.

Lemma le_bytes_bytes cnt : forall v, Forall (fun b => b < 256) (Parser.le_bytes cnt v).
Proof. induction cnt as [|cnt IH]; intros v; cbn [Parser.le_bytes]; constructor; auto using land255_lt. Qed.

Lemma table_image_ok payload : Forall (fun b => b < 256) payload -> N.of_nat (length payload) + 2048 <= two32 -> image_ok (table_image payload).
Proof.
  intros Hb Hl. unfold image_ok, table_image. split.
  - apply Forall_app. split; [repeat constructor|].
    apply Forall_app. split; [apply le_bytes_bytes|].
    apply Forall_app. split; [repeat constructor|].
    apply Forall_app. split; [|exact Hb].
    apply Forall_forall. intros x Hx. apply repeat_spec in Hx. subst. reflexivity.
  - rewrite !app_length, repeat_length.
    assert (E4 : forall v, length (Parser.le_bytes 4 v) = 4%nat) by reflexivity. rewrite E4.
    change (length [68; 83; 68; 84]) with 4%nat. change (length [2]) with 1%nat.
    change (N.to_nat aml_sizeofSDTHeader - 9)%nat with 27%nat.
    unfold two32 in *. lia.
Qed.

Lemma load_tables_cons tree earlier handle p rest :
  load_tables tree earlier handle (p :: rest) =
  match parseAML tree earlier handle (table_image p) with
  | Ok (true, s) => load_tables (p_tree s) (earlier ++ [table_image p]) (handle + 1) rest
  | Ok (false, s) => (1, p_tree s, earlier ++ [table_image p])
  | Panic => (2, tree, earlier)
  | OutOfFuel => (3, tree, earlier)
  end.
Proof. reflexivity. Qed.

Lemma load_tables_ok payloads : forall tree earlier handle class t imgs,
  Forall (fun p => Forall (fun b => b < 256) p /\ N.of_nat (length p) + 2048 <= two32) payloads ->
  pool_ok earlier tree -> load_tables tree earlier handle payloads = (class, t, imgs) -> class = 0 \/ class = 1 ->
  pool_ok imgs t.
Proof.
  induction payloads as [|p rest IH]; intros tree earlier handle class t imgs Hall Hp E Hc.
  - injection E as <- <- <-. exact Hp.
  - inversion Hall as [|? ? (Hb & Hl) Hrest]; subst.
    pose proof (table_image_ok p Hb Hl) as Hi. rewrite load_tables_cons in E.
    pose proof (parseAML_inv tree earlier handle (table_image p)) as Hinv.
    destruct (parseAML tree earlier handle (table_image p)) as [[[|] s]| |].
    + destruct (Hinv _ _ Hi Hp eq_refl) as (Hp' & _). exact (IH _ _ _ _ _ _ Hrest Hp' E Hc).
    + destruct (Hinv _ _ Hi Hp eq_refl) as (Hp' & _). injection E as <- <- <-. exact Hp'.
    + injection E as <- _ _. destruct Hc; discriminate.
    + injection E as <- _ _. destruct Hc; discriminate.
Qed.
