(** C11 (fragment proofs): reading the namespace view (Aml/View.v) off a pool described by [Rep]. *)
From Coq Require Import NArith ZArith Arith List Bool Lia.
From Coq Require Import ZifyBool ZifyN ZifyNat.
From FF Require Import Lib.Word Gen.Consts_device_acpi_aml Gen.Consts_aml_tree Aml.Stream Aml.Lex Aml.LexProofs
  Aml.Tree Aml.TreeSpec Aml.TreeProofs Aml.TreeProofsOps Aml.TreeProofsFind Aml.Parser Aml.Grammar
  Aml.ParserTotalTree Aml.ParserTotalTree2 Aml.ParserTotalLex Aml.ParserTotalTable Aml.ParserTotalBase
  Aml.LexRoundtrip Aml.ParserFragBase Aml.ParserFragFirst Aml.ParserFragF0Conn Aml.View.
Import ListNotations.
Local Open Scope N_scope.

Lemma name_num_seg s : s < 0x100000000 -> name_num (seg_nm s) = s.
Proof.
  intros H. unfold name_num, seg_nm. rewrite !land_255, !N.shiftr_div_pow2.
  change (2 ^ 24) with 16777216. change (2 ^ 16) with 65536. change (2 ^ 8) with 256. lia.
Qed.

(** ---- the child list as the view reads it ---- *)
Lemma kids_go_chain (t : T) p : forall l prev fuel,
  chain t p prev l InvalidIndex -> (length l < fuel)%nat ->
  (forall c, In c l -> c <> InvalidIndex) ->
  kids_go t fuel (hd InvalidIndex l) = l.
Proof.
  induction l as [|c l IH]; intros prev fuel Hc Hf Hn.
  - destruct fuel; [cbn in Hf; lia|]. cbn [kids_go hd]. rewrite N.eqb_refl. reflexivity.
  - destruct fuel; [cbn in Hf; lia|]. cbn [hd kids_go].
    destruct Hc as [(oc & Hg & Hl & _ & _ & Hnx) Hc].
    assert (Hcv : c <> InvalidIndex) by (apply Hn; left; reflexivity).
    apply N.eqb_neq in Hcv. rewrite Hcv. unfold obj. unfold TreeSpec.get in Hg. rewrite Hg. rewrite Hnx.
    f_equal. apply (IH c); [exact Hc|cbn [length] in Hf; lia|]. intros c' Hc'. apply Hn. right. exact Hc'.
Qed.

Lemma view_obj (t : T) g pl i a : Rep t g pl -> pget pl i = Some a -> y_op a <> opFreed ->
  exists o, obj t i = Some o /\ pay_of o = a /\ View.kids t o = TreeSpec.kids g i.
Proof.
  intros H Ha Hl. pose proof (rep_R _ _ _ H) as HR.
  destruct (rep_obj _ _ _ H _ _ Ha Hl) as (o & Ho & Epay & _ & Hfirst & _).
  exists o. split; [exact Ho|]. split; [exact Epay|].
  assert (Hlo : o_opcode o <> opFreed) by (rewrite (pay_op _ _ Epay); exact Hl).
  destruct (R_kids _ _ HR _ _ Ho Hlo) as (_ & _ & Hch & _).
  unfold View.kids. rewrite Hfirst. eapply kids_go_chain; [exact Hch| |].
  - unfold pool_fuel. pose proof (kids_length t g HR i). lia.
  - intros c Hc. destruct (R_In_kids _ _ HR _ _ Hc) as (_ & co & Hco & _). eapply (R_pos_not_Inv _ _ HR); eauto.
Qed.

(** ---- the walk, one level ---- *)
Definition walkF (t : T) (tables : list (list N)) (f : nat) (known : list path) (p : path)
  (acc : list (list N) * list (list N)) (c : N) : list (list N) * list (list N) :=
        let '(es, stmts) := acc in
        match obj t c with
        | None => (es ++ [bad], stmts)
        | Some co =>
            let op := o_opcode co in
            if (op =? aml_pOpIntScopeBlock) && negb (is_zero_scopeblock co) then
              let p' := p ++ [name_num (o_name co)] in
              let '(es', st') := walk t tables f known c p' in
              (es ++ es' ++ anon p' st', stmts)
            else if op =? aml_pOpIntNamedField then
              match o_value co with
              | Some (VField fe) =>
                  let cont := obj t (fe_fieldIndex fe) in
                  let kind := match cont with Some k => o_opcode k | None => 0 end in
                  let conn := if fe_connectionIndex fe =? InvalidIndex then 0
                              else match cont with Some k => conn_ordinal t (View.kids t k) (fe_connectionIndex fe) 0 | None => 0xffff end in
                  (es ++ [[1] ++ tok_path (p ++ [name_num (o_name co)]) ++
                          [aml_pOpIntNamedField; kind; fe_offset fe; fe_width fe; fe_accessLength fe; fe_accessType fe; fe_accessAttrib fe;
                           fe_lockType fe; fe_updateType fe; conn]], stmts)
              | _ => (es ++ [bad], stmts)
              end
            else if is_declop op then
              let p' := p ++ [name_num (o_name co)] in
              let argScope := if op =? aml_pOpMethod then p' else p in
              match View.kids t co with
              | nameArg :: rest =>
                  let '(sub, args) :=
                    fold_left (fun (a : list (list N) * list N) k =>
                      let '(sub, args) := a in
                      match obj t k with
                      | Some ko =>
                          if o_opcode ko =? aml_pOpIntScopeBlock then
                            let '(es', st') := walk t tables f known k p' in
                            if op =? aml_pOpMethod then (sub ++ es', args ++ concat st')
                            else (sub ++ es' ++ anon p' st', args)
                          else (sub, args ++ renderExpr t tables (pool_fuel t) known argScope k)
                      | None => (sub ++ [bad], args)
                      end) rest ([], []) in
                  (es ++ sub ++ [[1] ++ tok_path p' ++ [op] ++ args], stmts)
              | [] => (es ++ [bad], stmts)
              end
            else if op =? aml_pOpScope then (es ++ [[3] ++ tok_path p], stmts)
            else if is_fieldcontainerop op then (es ++ [[2] ++ tok_path p ++ renderStmt t tables (pool_fuel t) known p c], stmts)
            else (es, stmts ++ [renderStmt t tables (pool_fuel t) known p c])
        end.

Lemma walk_S (t : T) tables f known scope p : walk t tables (S f) known scope p =
  match obj t scope with
  | None => ([bad], [])
  | Some so => fold_left (walkF t tables f known p) (View.kids t so) ([], [])
  end.
Proof. reflexivity. Qed.

(** a named ScopeBlock without children contributes nothing *)
Lemma walkF_empty_scope (t : T) tables f known p acc c co :
  obj t c = Some co -> o_opcode co = aml_pOpIntScopeBlock -> name_eqb (o_name co) (0, 0, 0, 0) = false -> View.kids t co = [] ->
  walkF t tables (S f) known p acc c = acc.
Proof.
  intros Ho Hop Hnm Hk. destruct acc as [es stmts]. unfold walkF. rewrite Ho. cbv zeta.
  unfold is_zero_scopeblock. rewrite Hop, Hnm. change ((aml_pOpIntScopeBlock =? aml_pOpIntScopeBlock) && negb (true && false)) with true. cbv iota.
  rewrite walk_S, Ho, Hk. cbn [fold_left anon map]. rewrite !app_nil_r. reflexivity.
Qed.

(** a constant as an expression *)
Definition const_tokens (op : N) (v : option value) : list N :=
  [op] ++ (match v with None => [0] | Some (VNum x) => [1; x] | _ => [9] end) ++ [0].

Lemma render_const (t : T) tables f known scope k ko :
  obj t k = Some ko -> View.kids t ko = [] ->
  (o_opcode ko =? aml_pOpIntResolvedNamePath) = false -> (o_opcode ko =? aml_pOpIntNamePath) = false ->
  (o_opcode ko =? aml_pOpIntNamePathOrMethodCall) = false -> (o_opcode ko =? aml_pOpIntMethodCall) = false ->
  match o_value ko with None => True | Some (VNum _) => True | _ => False end ->
  renderExpr t tables (S f) known scope k = const_tokens (o_opcode ko) (o_value ko).
Proof.
  intros Ho Hk E1 E2 E3 E4 Hv. cbn [renderExpr]. rewrite Ho. cbv zeta. rewrite E1, E2, E3, E4. cbn [orb].
  unfold exprKids. rewrite Hk. cbn [exprKids_go flat_map]. unfold const_tokens.
  destruct (o_value ko) as [[x|tb sl|i|fe]|]; try contradiction; reflexivity.
Qed.

(** a Name object with the children [name path; constant] *)
Lemma walkF_name (t : T) tables f known p es stmts c co pth k ko :
  obj t c = Some co -> o_opcode co = aml_pOpName -> View.kids t co = [pth; k] ->
  obj t k = Some ko -> View.kids t ko = [] ->
  (o_opcode ko =? aml_pOpIntScopeBlock) = false ->
  (o_opcode ko =? aml_pOpIntResolvedNamePath) = false -> (o_opcode ko =? aml_pOpIntNamePath) = false ->
  (o_opcode ko =? aml_pOpIntNamePathOrMethodCall) = false -> (o_opcode ko =? aml_pOpIntMethodCall) = false ->
  match o_value ko with None => True | Some (VNum _) => True | _ => False end ->
  walkF t tables f known p (es, stmts) c =
  (es ++ [[1] ++ tok_path (p ++ [name_num (o_name co)]) ++ [aml_pOpName] ++ const_tokens (o_opcode ko) (o_value ko)], stmts).
Proof.
  intros Ho Hop Hk Hko Hkk E0 E1 E2 E3 E4 Hv. unfold walkF. rewrite Ho. cbv zeta. rewrite Hop.
  change ((aml_pOpName =? aml_pOpIntScopeBlock) && negb (is_zero_scopeblock co)) with false. cbv iota.
  change (aml_pOpName =? aml_pOpIntNamedField) with false. change (is_declop aml_pOpName) with true. cbv iota.
  rewrite Hk. cbn [fold_left]. rewrite Hko, E0. change (aml_pOpName =? aml_pOpMethod) with false. cbv iota.
  unfold pool_fuel. rewrite (render_const t tables _ known p k ko Hko Hkk E1 E2 E3 E4 Hv). cbn [app]. reflexivity.
Qed.
