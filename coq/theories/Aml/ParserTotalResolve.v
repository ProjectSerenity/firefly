(** The resolve passes chained - mergeScopeDirectives and relocateNamedObjects alternate (resolve_loop)
    without a panic; the invariant of mergeScopeDirectives survives a relocation. *)
From Coq Require Import NArith Arith List Bool Lia.
From Coq Require Import ZifyBool ZifyN ZifyNat.
From FF Require Import Lib.Word Gen.Consts_device_acpi_aml Gen.Consts_aml_tree Aml.Stream Aml.Lex Aml.LexProofs
  Aml.Tree Aml.Parser Aml.ParserProofs Aml.TreeSpec Aml.TreeProofs Aml.TreeProofsOps Aml.TreeProofsFind Aml.TreeProofsAnc
  Aml.ParserTotalTree Aml.ParserTotalTree2 Aml.ParserTotalLex Aml.ParserTotalTable Aml.ParserTotalBase Aml.ParserTotalLeaf
  Aml.ParserTotalConn Aml.ParserTotalNonNamed Aml.ParserTotalCalls Aml.ParserTotalReloc Aml.ParserTotalMerge.
Import ListNotations.
Local Open Scope N_scope.

Section ResolveK.
Variable KI : pstate -> ghost -> Prop.
Hypothesis K_counters : forall s g a b c, KI s g -> KI (with_counters s a b c) g.
Hypothesis K_move : forall s g c m tg (t2 : T) g2, TI s g -> KI s g -> In m (kids g c) -> is_sb s c -> is_sb s tg ->
  pframe (p_tree s) t2 -> shape_eq g g2 ->
  (forall q, kids g2 q = (if q =? c then remove1 m (kids g c) else kids g q) ++ (if q =? tg then [m] else [])) ->
  KI (with_tree s t2) g2.
Hypothesis K_free : forall s g y (t' : T) g', TI s g -> KI s g -> glive g y -> kids g y = [] -> scoped s g y ->
  fframe y (p_tree s) t' -> (forall p, kids g' p = remove1 y (kids g p)) ->
  (forall z, glive g' z <-> glive g z /\ z <> y) -> (forall o', tget t' y = Some o' -> o_opcode o' = opFreed) ->
  KI (with_tree s t') g'.
Hypothesis K_reloc : forall s g x xo op fl af par tg (t2 : T) g2 v,
  TI s g -> KI s g -> tget (p_tree s) x = Some xo -> opInfo (o_infoIndex xo) = Some (op, fl, af) ->
  hasFlag fl aml_pOpFlagNamed = true -> o_opcode xo <> aml_pOpIntScopeBlock -> o_tableHandle xo = p_handle s ->
  In x (kids g par) -> is_sb s tg -> glive g tg -> kids g x <> [] ->
  pframe (p_tree s) t2 -> shape_eq g g2 -> roots_iff g g2 ->
  (forall q, kids g2 q = (if q =? par then remove1 x (kids g par) else kids g q) ++ (if q =? tg then [x] else [])) ->
  KI (with_tree s (tset t2 (hd InvalidIndex (kids g x)) (set_value v))) g2.

(** what mergeScopeDirectives needs beyond [TI] and a live root *)
Definition JM (s : pstate) (g : ghost) : Prop :=
  groot g 0 /\ is_sb s 0 /\ tyS NoX (p_tables s) (p_handle s) (p_tree s) g /\ KI s g.

Lemma JM_counters s g a b c : JM s g -> JM (with_counters s a b c) g.
Proof. intros (A & B & C & D). split; [exact A|]. split; [exact B|]. split; [exact C|apply K_counters; exact D]. Qed.

Lemma JM_reloc s g x xo op fl af par tg (t2 : T) g2 v :
  TI s g -> JM s g -> tget (p_tree s) x = Some xo -> opInfo (o_infoIndex xo) = Some (op, fl, af) ->
  hasFlag fl aml_pOpFlagNamed = true -> o_opcode xo <> aml_pOpIntScopeBlock -> o_tableHandle xo = p_handle s ->
  In x (kids g par) -> is_sb s tg -> glive g tg -> kids g x <> [] ->
  pframe (p_tree s) t2 -> shape_eq g g2 -> roots_iff g g2 ->
  (forall q, kids g2 q = (if q =? par then remove1 x (kids g par) else kids g q) ++ (if q =? tg then [x] else [])) ->
  JM (with_tree s (tset t2 (hd InvalidIndex (kids g x)) (set_value v))) g2.
Proof.
  intros HT (Hr0 & Hsb0 & Hty & HK) Hxo Erow Enamed Hnsb Hh Hin Htg Hltg Hkx Hpf S2 R2 Hk.
  pose proof (ti_R _ _ HT) as HR.
  set (n := hd InvalidIndex (kids g x)).
  assert (Hn_in : In n (kids g x)) by (unfold n; destruct (kids g x); [contradiction|left; reflexivity]).
  (* objects other than [n] keep their payload; [n] keeps everything but its value *)
  assert (Hback : forall i o', tget (tset t2 n (set_value v)) i = Some o' ->
            exists o, tget (p_tree s) i = Some o /\ o_opcode o' = o_opcode o /\ o_infoIndex o' = o_infoIndex o /\
                      o_tableHandle o' = o_tableHandle o /\ o_name o' = o_name o /\ (i <> n -> o_value o' = o_value o)).
  { intros i o' Hg. rewrite get_tset in Hg. destruct (N.eqb_spec i n) as [->|Hne].
    - destruct (tget t2 n) as [o2|] eqn:E2; [|discriminate]. cbn [option_map] in Hg. inversion Hg; subst o'.
      destruct (pframe_inv _ _ _ _ Hpf E2) as (o & Ho & P1 & P2 & P3 & P4 & _).
      exists o. split; [exact Ho|]. cbn [set_value o_opcode o_infoIndex o_tableHandle o_name].
      repeat (split; [assumption|]). intros F; contradiction.
    - destruct (pframe_inv _ _ _ _ Hpf Hg) as (o & Ho & P1 & P2 & P3 & P4 & _ & _ & _ & P8).
      exists o. split; [exact Ho|]. repeat (split; [assumption|]). intros _. exact P8. }
  assert (Hfwd : forall i o, tget (p_tree s) i = Some o -> i <> n ->
            exists o', tget (tset t2 n (set_value v)) i = Some o' /\ o_opcode o' = o_opcode o /\ o_value o' = o_value o).
  { intros i o Ho Hne. destruct (proj2 Hpf _ _ Ho) as (o2 & Ho2 & P1 & _ & _ & _ & _ & _ & _ & P8).
    exists o2. rewrite get_tset. apply N.eqb_neq in Hne. rewrite Hne. auto. }
  split; [|split; [|split; [|eapply K_reloc; eauto]]].
  - intros q Hq. rewrite Hk in Hq. apply in_app_or in Hq. destruct Hq as [Hq|Hq].
    + revert Hq. destruct (N.eqb_spec q par) as [->|_]; intros Hq; [apply (Hr0 par); eapply remove1_In; exact Hq|apply (Hr0 q); exact Hq].
    + revert Hq. destruct (q =? tg); intros Hq; [|contradiction]. destruct Hq as [E|[]]. subst x. apply (Hr0 par). exact Hin.
  - destruct Hsb0 as (ro & Hro & Ero).
    assert (H0n : 0 <> n) by (intros E; apply (Hr0 x); rewrite E; exact Hn_in).
    destruct (Hfwd 0 ro Hro H0n) as (o' & Ho' & E1 & _). exists o'. split; [exact Ho'|congruence].
  - intros x' xo' Hg' Hop Hh' _. cbn [p_tree p_tables p_handle with_tree] in *.
    destruct (Hback x' xo' Hg') as (xo0 & Hxo0 & B1 & B2 & B3 & B4 & _).
    assert (Hop0 : o_opcode xo0 = aml_pOpScope) by congruence.
    assert (Hh0 : o_tableHandle xo0 = p_handle s) by congruence.
    destruct (Hty x' xo0 Hxo0 Hop0 Hh0 (fun F => F)) as (Hnl & Hnn & n' & c' & no' & co' & tbl & sl & K1 & K2 & K3 & K4 & K5 & K6 & K7 & K8 & K9).
    assert (Hxx : x' <> x).
    { intros ->. assert (xo0 = xo) by congruence. subst xo0. rewrite (Hnn _ _ _ Erow) in Enamed. discriminate. }
    assert (Hin_n' : In n' (kids g x')) by (rewrite K1; left; reflexivity).
    assert (Hin_c' : In c' (kids g x')) by (rewrite K1; right; left; reflexivity).
    assert (Hx'par : x' <> par).
    { intros ->. rewrite K1 in Hin. destruct Hin as [E|[E|[]]]; subst x.
      - apply Hkx. exact K2.
      - apply Hnsb. assert (co' = xo) by congruence. subst. exact K9. }
    assert (Hx'tg : x' <> tg).
    { intros ->. destruct Htg as (o & Ho & Eo). assert (o = xo0) by congruence. subst. rewrite Hop0 in Eo. discriminate. }
    assert (Hn'par : n' <> par) by (intros ->; rewrite K2 in Hin; contradiction).
    assert (Hn'tg : n' <> tg).
    { intros ->. destruct Htg as (o & Ho & Eo). assert (o = no') by congruence. subst. contradiction. }
    assert (Hsame : forall q, q <> par -> q <> tg -> kids g2 q = kids g q).
    { intros q Q1 Q2. rewrite Hk. apply N.eqb_neq in Q1. apply N.eqb_neq in Q2. rewrite Q1, Q2. apply app_nil_r. }
    assert (Hn'n : n' <> n) by (intros E; apply Hxx; eapply (R_parent_unique _ _ HR); [exact Hin_n'|rewrite E; exact Hn_in]).
    assert (Hc'n : c' <> n) by (intros E; apply Hxx; eapply (R_parent_unique _ _ HR); [exact Hin_c'|rewrite E; exact Hn_in]).
    destruct (Hfwd n' no' K3 Hn'n) as (no2 & Hno2 & F1 & F2).
    destruct (Hfwd c' co' K8 Hc'n) as (co2 & Hco2 & G1 & _).
    split; [congruence|]. split; [rewrite B2; exact Hnn|].
    exists n', c', no2, co2, tbl, sl.
    split; [rewrite Hsame; auto|]. split; [rewrite Hsame; auto|].
    repeat (split; [congruence|]). split; [exact K7|]. split; congruence.
Qed.

(** relocateNamedObjects keeps the invariant of mergeScopeDirectives *)
Notation MIK := (MI KI).

Lemma relocate_MI fuel s g : MIK NoX s g ->
  wp True (relocateNamedObjects fuel 0) s (fun _ s' => exists g', MIK NoX s' g').
Proof.
  intros [A B C D E F].
  eapply wp_weaken; [apply (proj1 (reloc_all JM JM_counters JM_reloc fuel) 0 s g A (conj C (conj D (conj E F))) B B (fun _ => D))|auto|].
  intros r s' (g' & HT' & S' & _ & (C' & D' & E' & F')). exists g'. constructor; auto.
  apply (shape_eq_glive _ _ _ S'). exact B.
Qed.

(** the loop of the resolve passes *)
Lemma resolve_loop_MI walkFuel : forall fuel s g, MIK NoX s g ->
  wp True (resolve_loop fuel walkFuel) s (fun _ s' => exists g', MIK NoX s' g').
Proof.
  induction fuel as [|fuel IH]; intros s g H; cbn [resolve_loop]; [apply wp_outOfFuel; exact I|].
  apply wp_bind. eapply wp_weaken; [apply (proj1 (merge_all KI K_counters K_move K_free walkFuel) 0 s g H (mi_live0 _ _ _ _ H))|auto|].
  intros mr s1 (g1 & H1 & _).
  destruct (pres_eqb mr RFailed); [apply wp_ret; eauto|].
  apply wp_bind. eapply wp_weaken; [apply (relocate_MI walkFuel s1 g1 H1)|auto|].
  intros rr s2 (g2 & H2).
  destruct (pres_eqb rr RFailed); [apply wp_ret; eauto|].
  destruct (pres_eqb mr ROk && pres_eqb rr ROk); [apply wp_ret; eauto|].
  apply wp_bind. apply wp_counters. apply (IH _ g2). apply MI_counters; [exact K_counters|exact H2].
Qed.
End ResolveK.

Lemma resolve_loop_plain walkFuel fuel s g : MI KTs NoX s g ->
  wp True (resolve_loop fuel walkFuel) s (fun _ s' => exists g', MI KTs NoX s' g').
Proof. apply (resolve_loop_MI KTs); intros; exact I. Qed.
