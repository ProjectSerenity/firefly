(** C11 (fragment F6): the recogniser [in_fragment_F6] of the fragment F5 extended by Name declarations whose value is a string, its soundness [f6_item_ast],
    and [parse_encode_F6], the instance of [parse_encode_one] (ParserFragF3Final.v) for it.

    F6 = F5 + Name(SEG, "characters"): a string of ASCII characters 0x01 .. 0x7f (possibly empty), anywhere an item of
    F5 may stand.  Productions added to F5: DataRefObject = String (StringPrefix AsciiCharList NullChar).
    The string is an object of its own after the first pass (the parser records table and byte range, not the bytes),
    connectNamedObjArgs attaches it to the Name, and the namespace view reads the bytes back from the table image. *)
From Coq Require Import NArith List Bool.
From FF Require Import Aml.Grammar Aml.WfProgram Aml.ParserFragF0 Aml.ParserFragArgs Aml.ParserFragF1
  Aml.ParserFragF0Final Aml.ParserFragF1Final Aml.ParserFragScope Aml.ParserFragF3Final.
Import ListNotations.
Local Open Scope N_scope.

Fixpoint f6_item (a : ast) : option item :=
  let go := fix go (l : list ast) : option (list item) :=
              match l with
              | [] => Some []
              | x :: t => match f6_item x, go t with Some i, Some r => Some (i :: r) | _, _ => None end
              end in
  let blk (bk : bkind) (k : N) (nm : namestr) (fa : list N) (body : list ast) : option item :=
      match simple_name nm, go body with
      | Some seg, Some b => Some (IBlk bk k seg fa b)
      | _, _ => None
      end in
  match a with
  | AName nm (AConst op v) => match simple_name nm with Some seg => Some (IName (mkDecl seg op v)) | None => None end
  | AName nm (AStr b) => match simple_name nm with Some seg => Some (ILeaf LName seg [] [TStr b]) | None => None end
  | ADevice k nm body => blk BDev k nm [] body
  | AThermal k nm body => blk BTZ k nm [] body
  | AProcessor k nm id addr len body => blk BProc k nm [id; addr; len] body
  | APowerRes k nm level order body => blk BPwr k nm [level; order] body
  | AMethod k nm fl body => blk BMeth k nm [fl] body
  | AMutex nm sync => match simple_name nm with Some seg => Some (ILeaf LMutex seg [sync] []) | None => None end
  | AEvent nm => match simple_name nm with Some seg => Some (ILeaf LEvent seg [] []) | None => None end
  | AOpRegion nm space (AConst op1 v1) (AConst op2 v2) =>
      match simple_name nm with Some seg => Some (ILeaf LOpReg seg [space] [TInt (mkDecl 0 op1 v1); TInt (mkDecl 0 op2 v2)]) | None => None end
  | _ => None
  end.

Fixpoint f6_items (l : list ast) : option (list item) :=
  match l with
  | [] => Some []
  | x :: t => match f6_item x, f6_items t with Some i, Some r => Some (i :: r) | _, _ => None end
  end.

Definition f6_titem (a : ast) : option titem :=
  match a with
  | AScope k nm body =>
      match scope_target nm, f6_items body with
      | Some (root, d), Some b => Some (TScope k root d b)
      | _, _ => None
      end
  | _ => match f6_item a with Some it => Some (TItem it) | None => None end
  end.

Fixpoint f6_titems (l : list ast) : option (list titem) :=
  match l with
  | [] => Some []
  | x :: t => match f6_titem x, f6_titems t with Some i, Some r => Some (i :: r) | _, _ => None end
  end.

Definition in_fragment_F6 (tables : list (list ast)) : bool :=
  match tables with
  | [p] => match f6_titems p with Some _ => lenN (encode_table p) <? 0x10000000 | None => false end
  | _ => false
  end.

Lemma f6_item_ast : forall a, sound f6_item a.
Proof.
  induction a as [a IH] using ast_body_ind. intros it.
  destruct a as [ | | | | | | | | | | | | | k nm body | k nm body | k nm id addr len body | k nm level order body | k nm fl body | nm v | nm space off len | | | | nm sync | nm ]; try discriminate; cbn [f6_item body_of] in *.
  1-5: apply (blk_sound f6_item); [reflexivity|exact IH].
  - destruct v; try discriminate; intros E; destruct (name_sound _ _ _ E) as (seg & -> & ->); split; reflexivity.
  - destruct off; try discriminate. destruct len; try discriminate. intros E; destruct (name_sound _ _ _ E) as (seg & -> & ->); split; reflexivity.
  - intros E; destruct (name_sound _ _ _ E) as (seg & -> & ->); split; reflexivity.
  - intros E; destruct (name_sound _ _ _ E) as (seg & -> & ->); split; reflexivity.
Qed.

Theorem parse_encode_F6 : forall tables,
  wf_program tables = true -> in_fragment_F6 tables = true -> parse_encode_statement tables.
Proof. exact (parse_encode_one f6_item f6_item_ast). Qed.
