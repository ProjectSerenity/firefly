(** Tree-level lemmas for the panic-freedom proofs of the passes.

    On top of C13's relation [R] between the pool and the ghost forest (Aml/TreeSpec.v) and the
    per-edit lemmas of Aml/TreeProofsOps.v:
      - [R_ext2]: writes that keep the links and the freed / not-freed status of every object keep [R];
      - [gext g0 g]: the forest [g] extends [g0] the way the parsing passes extend it (objects stay live,
        objects of [g0] get no new parent, child lists only grow), with the consequence used for the
        legality of every append: an object created after [g0] has no descendant among the objects of [g0];
      - the shape of the object returned by [newObject], and the frame (payload fields untouched) of
        [append] / [appendAfter]. *)
From Coq Require Import NArith Arith List Bool Lia.
From Coq Require Import ZifyBool ZifyN ZifyNat.
From FF Require Import Lib.Word Gen.Consts_aml_tree Aml.Stream Aml.Tree Aml.TreeSpec Aml.TreeProofs Aml.TreeProofsOps.
Import ListNotations.
Local Open Scope N_scope.

(** ---- writes that leave the links alone ---- *)
Definition lk_eq {V} (o o' : Object V) : Prop :=
  (o_opcode o' = opFreed <-> o_opcode o = opFreed) /\ o_index o' = o_index o /\ o_parent o' = o_parent o /\
  o_prev o' = o_prev o /\ o_next o' = o_next o /\ o_first o' = o_first o /\ o_last o' = o_last o.

Lemma lk_eq_refl {V} (o : Object V) : lk_eq o o.
Proof. unfold lk_eq. tauto. Qed.

Lemma node_frame2 {V} (t t' : ObjectTree V) c p pv nx :
  (forall o, get t c = Some o -> exists o', get t' c = Some o' /\ lk_eq o o') ->
  node t c p pv nx -> node t' c p pv nx.
Proof.
  intros H (o & Hg & Hl & Hp & Hpv & Hn). destruct (H o Hg) as (o' & Hg' & E1 & E2 & E3 & E4 & E5 & _).
  exists o'. split; [exact Hg'|]. split; [intros Hf; apply Hl, E1, Hf|]. repeat split; congruence.
Qed.

Lemma chain_frame2 {V} (t t' : ObjectTree V) p prev l nxt :
  (forall c o, In c l -> get t c = Some o -> exists o', get t' c = Some o' /\ lk_eq o o') ->
  chain t p prev l nxt -> chain t' p prev l nxt.
Proof.
  revert prev; induction l as [|c l IH]; intros prev H; simpl; auto.
  intros [Hn Hc]. split.
  - eapply node_frame2; eauto. intros o Ho. apply (H c o); simpl; auto.
  - apply IH; auto. intros c' o' Hin. apply H. simpl; auto.
Qed.

Lemma fchain_frame3 {V} (t T : ObjectTree V) h l :
  (forall x o, In x l -> get t x = Some o -> exists o', get T x = Some o' /\ lk_eq o o') ->
  fchain t h l -> fchain T h l.
Proof.
  revert h; induction l as [|y l IH]; intros h H; cbn [fchain]; auto.
  intros (-> & o & Hg & Hf & Hc). split; auto.
  destruct (H y o (or_introl eq_refl) Hg) as (o' & Hg' & E1 & _ & _ & _ & E5 & _).
  exists o'. split; auto. split; [apply E1; exact Hf|]. rewrite E5. apply IH; auto.
  intros x ox Hx. apply H. right; auto.
Qed.

Lemma R_ext2 {V} (t T : ObjectTree V) g :
  R t g -> length (t_pool T) = length (t_pool t) -> t_free T = t_free t ->
  (forall i o, get t i = Some o -> exists o', get T i = Some o' /\ lk_eq o o') ->
  R T g.
Proof.
  intros HR Hlen Hfree H.
  assert (Hinv : forall i o', get T i = Some o' -> exists o, get t i = Some o /\ lk_eq o o').
  { intros i o' Hg. pose proof (get_lt _ _ _ Hg) as Hlt. rewrite Hlen in Hlt.
    destruct (get_some _ _ Hlt) as (o & Ho). destruct (H _ _ Ho) as (o2 & Hg2 & E).
    assert (o2 = o') by congruence. subst. eauto. }
  constructor.
  - rewrite Hlen. apply (R_len _ _ HR).
  - rewrite Hlen. apply (R_bound _ _ HR).
  - intros i o' Hg. destruct (Hinv _ _ Hg) as (o & Ho & _ & E & _). rewrite E. eapply R_index; eauto.
  - intros i o' Hg Hl. destruct (Hinv _ _ Hg) as (o & Ho & E1 & E2 & E3 & E4 & E5 & E6 & E7).
    assert (Hl0 : o_opcode o <> opFreed) by (intros Hf; apply Hl, E1, Hf).
    destruct (R_kids _ _ HR _ _ Ho Hl0) as (F & L & C & N0).
    rewrite E6, E7. repeat split; auto. eapply chain_frame2; [|exact C]. intros c oc _ Hgc. auto.
  - intros i o' Hg Hl. destruct (Hinv _ _ Hg) as (o & Ho & E1 & E2 & E3 & E4 & E5 & E6 & E7).
    assert (Hl0 : o_opcode o <> opFreed) by (intros Hf; apply Hl, E1, Hf).
    rewrite E3, E4, E5. eapply R_up; eauto.
  - intros i o' Hg Hf. destruct (Hinv _ _ Hg) as (o & Ho & E1 & _). apply E1 in Hf. eapply R_freed; eauto.
  - destruct (R_flist _ _ HR) as [Hc Hn]. split; auto. rewrite Hfree.
    eapply fchain_frame3; [|exact Hc]. intros x o _ Hg. auto.
  - intros i o' Hg Hl. destruct (Hinv _ _ Hg) as (o & Ho & E1 & _).
    assert (Hl0 : o_opcode o <> opFreed) by (intros Hf; apply Hl, E1, Hf).
    destruct (R_acyc _ _ HR _ _ Ho Hl0) as (k & Hd). exists k.
    eapply Depth_transfer with (P := fun _ => True); [|exact Hd|exact I].
    intros j oj _ Hgj Hlj. split; auto.
    destruct (H _ _ Hgj) as (oj' & Hgj' & F1 & _ & F3 & _). exists oj'. split; auto. split; auto.
    intros Hf. apply Hlj, F1, Hf.
Qed.

(** a write into one slot that keeps its links *)
Lemma R_tset_lk {V} (t : ObjectTree V) g p f :
  R t g -> (forall o, get t p = Some o -> lk_eq o (f o)) -> R (tset t p f) g.
Proof.
  intros HR Hf. apply R_ext2 with (t := t); auto; [apply tset_len|].
  intros i o Hg. rewrite get_tset. destruct (N.eqb_spec i p) as [->|Hne].
  - rewrite Hg. cbn [option_map]. eexists; split; eauto.
  - exists o. split; auto. apply lk_eq_refl.
Qed.

Lemma wr_inv {V} (t t' : ObjectTree V) p f : wr t p f = Ok t' -> t' = tset t p f /\ exists o, get t p = Some o.
Proof.
  unfold wr. rewrite deref_get. destruct (get t p) as [o|] eqn:E; cbn [bind]; [|discriminate].
  intros H; inversion H. split; eauto.
Qed.

Lemma rd_inv {V} (t : ObjectTree V) p f v : rd t p f = Ok v -> exists o, get t p = Some o /\ v = f o.
Proof.
  unfold rd. rewrite deref_get. destruct (get t p) as [o|] eqn:E; cbn [bind]; [|discriminate].
  intros H; inversion H. eauto.
Qed.

(** ---- the forest only grows ---- *)
Definition gwf (g : ghost) : Prop := forall p c, In c (kids g p) -> glive g p /\ glive g c.

Lemma R_gwf {V} (t : ObjectTree V) g : R t g -> gwf g.
Proof.
  intros HR p c Hin. destruct (R_In_kids t g HR _ _ Hin) as ((po & Hp & Hlp) & co & Hc & Hlc & _).
  split; apply (R_live_glive t g HR); [exists po|exists co]; auto.
Qed.

Record gext (g0 g : ghost) : Prop := mkGext {
  ge_live : forall x, glive g0 x -> glive g x;
  ge_old : forall p c, In c (kids g p) -> glive g0 c -> In c (kids g0 p);
  ge_kids : forall p c, In c (kids g0 p) -> In c (kids g p)
}.

Lemma gext_refl g : gext g g.
Proof. constructor; auto. Qed.

Lemma gext_trans g0 g1 g2 : gext g0 g1 -> gext g1 g2 -> gext g0 g2.
Proof.
  intros [A1 A2 A3] [B1 B2 B3]. constructor; auto.
Qed.

Lemma desc_leaf g a x : kids g a = [] -> desc g a x -> x = a.
Proof. intros Hk D. induction D as [|p c D IH Hin]; [reflexivity|]. subst p. rewrite Hk in Hin. contradiction. Qed.

(** an object created after [g0] has no descendant among the objects of [g0] *)
Lemma nodesc g0 g a x : gwf g0 -> gext g0 g -> ~ glive g0 a -> glive g0 x -> ~ desc g a x.
Proof.
  intros Hwf Hext Hna Hx Hd. revert Hx. induction Hd as [|p c Hd IH Hin]; intros Hx.
  - contradiction.
  - apply IH. pose proof (ge_old _ _ Hext _ _ Hin Hx) as Hin0. apply (Hwf _ _ Hin0).
Qed.

(** a root of [g0] is still a root *)
Lemma groot_ext g0 g x : gext g0 g -> glive g0 x -> groot g0 x -> groot g x.
Proof. intros Hext Hl Hr p Hin. apply (Hr p). eapply ge_old; eauto. Qed.

Lemma kids_free_irrel k f f' i : kids (mkGhost k f) i = kids (mkGhost k f') i.
Proof. reflexivity. Qed.

Lemma gext_new g opc th : gext g (astep g (OpNew opc th)).
Proof.
  cbn [astep]. destruct (g_free g) as [|x rest] eqn:Ef.
  - constructor.
    + intros y [Hlt Hnin]. split; cbn [g_kids g_free]; [rewrite app_length; cbn [length]; lia|auto].
    + intros p c. rewrite kids_app_nil. auto.
    + intros p c. rewrite kids_app_nil. auto.
  - constructor.
    + intros y [Hlt Hnin]. split; cbn [g_kids g_free]; auto. rewrite Ef in Hnin. intros Hin. apply Hnin. right; auto.
    + intros p c. auto.
    + intros p c. auto.
Qed.

Lemma gext_append g o a : o < N.of_nat (length (g_kids g)) ->
  forall g0, gext g0 g -> ~ glive g0 a -> gext g0 (astep g (OpAppend o a)).
Proof.
  intros Ho g0 [A1 A2 A3] Hna. cbn [astep]. constructor.
  - intros x Hx. destruct (A1 _ Hx) as [Hlt Hnin]. split; [rewrite set_kids_len; auto|rewrite set_kids_free; auto].
  - intros p c. rewrite kids_set_kids by auto. destruct (N.eqb_spec p o) as [->|Hne]; auto.
    intros Hin Hl. apply in_app_or in Hin. destruct Hin as [Hin|[E|[]]]; [auto|subst c; contradiction].
  - intros p c Hin. rewrite kids_set_kids by auto. destruct (N.eqb_spec p o) as [->|Hne]; auto.
    apply in_or_app. left; auto.
Qed.

Lemma In_insert_after n a l x : In x (insert_after n a l) -> In x l \/ x = a.
Proof.
  induction l as [|y l IH]; cbn [insert_after]; auto.
  destruct (y =? n).
  - intros [<-|[<-|H]]; cbn; auto.
  - intros [<-|H]; cbn; auto. destruct (IH H); auto.
Qed.

Lemma In_insert_after_old n a l x : In x l -> In x (insert_after n a l).
Proof.
  induction l as [|y l IH]; cbn [insert_after]; auto.
  destruct (y =? n); intros [<-|H]; cbn; auto.
Qed.

Lemma gext_appendAfter g o a n : o < N.of_nat (length (g_kids g)) ->
  forall g0, gext g0 g -> ~ glive g0 a -> gext g0 (astep g (OpAppendAfter o a n)).
Proof.
  intros Ho g0 [A1 A2 A3] Hna. cbn [astep]. constructor.
  - intros x Hx. destruct (A1 _ Hx) as [Hlt Hnin]. split; [rewrite set_kids_len; auto|rewrite set_kids_free; auto].
  - intros p c. rewrite kids_set_kids by auto. destruct (N.eqb_spec p o) as [->|Hne]; auto.
    intros Hin Hl. apply In_insert_after in Hin. destruct Hin as [Hin | ->]; auto. contradiction.
  - intros p c Hin. rewrite kids_set_kids by auto. destruct (N.eqb_spec p o) as [->|Hne]; auto.
    apply In_insert_after_old; auto.
Qed.

(** ---- the new object ---- *)
Definition new_slot {V} (t : ObjectTree V) (g : ghost) : N :=
  match g_free g with [] => N.of_nat (length (t_pool t)) | x :: _ => x end.

Lemma new_slot_fresh {V} (t : ObjectTree V) g opc th :
  R t g ->
  let p := new_slot t g in let g' := astep g (OpNew opc th) in
  ~ glive g p /\ glive g' p /\ kids g' p = [] /\ groot g' p.
Proof.
  intros HR p g'. subst p g'. unfold new_slot. cbn [astep].
  destruct (R_flist _ _ HR) as [Hfc Hnd].
  destruct (g_free g) as [|x rest] eqn:Ef.
  - assert (Hk : kids g (N.of_nat (length (t_pool t))) = []) by (apply kids_oob; rewrite (R_len _ _ HR); lia).
    split; [|split; [|split]].
    + intros [Hlt _]. rewrite (R_len _ _ HR) in Hlt. lia.
    + split; cbn [g_kids g_free]; auto. rewrite app_length, (R_len _ _ HR). cbn [length]. lia.
    + rewrite kids_app_nil. exact Hk.
    + intros q. rewrite kids_app_nil. intros Hin.
      destruct (R_In_kids t g HR _ _ Hin) as (_ & co & Hc & _). apply get_lt in Hc. lia.
  - destruct (fchain_In _ _ _ x Hfc (or_introl eq_refl)) as (xo & Hx & Hxf).
    split; [|split; [|split]].
    + intros [_ Hnin]. apply Hnin. rewrite Ef. left; auto.
    + split; cbn [g_kids g_free]. * rewrite (R_len _ _ HR). eapply get_lt; eauto.
      * inversion Hnd; auto.
    + change (kids g x = []). apply (R_freed _ _ HR _ _ Hx Hxf).
    + intros q Hin. change (In x (kids g q)) in Hin.
      destruct (R_In_kids t g HR _ _ Hin) as (_ & co & Hc & Hl & _). congruence.
Qed.

Lemma newObject_shape {V} (t t' : ObjectTree V) opc th p :
  newObject t opc th = Ok (t', p) ->
  (exists po, get t' p = Some po /\ o_opcode po = opc /\ pOpcodeTableIndex opc true = Ok (o_infoIndex po) /\
              o_tableHandle po = th /\ o_value po = None) /\
  (forall i o, i <> p -> get t i = Some o -> get t' i = Some o) /\
  (forall i o, i <> p -> get t' i = Some o -> get t i = Some o) /\
  (length (t_pool t') <= S (length (t_pool t)))%nat /\ (length (t_pool t) <= length (t_pool t'))%nat.
Proof.
  unfold newObject. destruct (t_free t =? InvalidIndex) eqn:Efr; cbn [bind].
  - destruct (pOpcodeTableIndex opc true) as [info| |] eqn:Ei; cbn [bind]; try discriminate.
    set (t1 := mkTree (t_pool t ++ [blank_object (pool_len t)]) (t_free t)).
    assert (G1 : get t1 (N.of_nat (length (t_pool t))) = Some (blank_object (pool_len t))).
    { unfold get, t1. cbn [t_pool]. rewrite Nat2N.id, nth_error_app2 by lia. rewrite Nat.sub_diag. reflexivity. }
    rewrite (wr_ok _ _ _ _ G1). cbn [bind]. intros H; inversion H; subst t' p; clear H.
    split; [|split; [|split; [|split]]].
    + eexists. rewrite get_tset, N.eqb_refl, G1. cbn [option_map]. split; [reflexivity|]. cbn. auto.
    + intros i o Hne Hg. rewrite get_tset. apply N.eqb_neq in Hne. rewrite Hne.
      unfold get, t1. cbn [t_pool]. rewrite nth_error_app1; auto. apply nth_error_Some. unfold get in Hg. congruence.
    + intros i o Hne Hg. rewrite get_tset in Hg. pose proof Hne as Hne'. apply N.eqb_neq in Hne. rewrite Hne in Hg.
      unfold get, t1 in Hg. cbn [t_pool] in Hg. unfold get.
      assert (Hlt : (N.to_nat i < length (t_pool t ++ [blank_object (pool_len t)]))%nat) by (apply nth_error_Some; congruence).
      rewrite app_length in Hlt. cbn [length] in Hlt.
      rewrite nth_error_app1 in Hg; auto. lia.
    + rewrite tset_len. unfold t1. cbn [t_pool]. rewrite app_length. cbn [length]. lia.
    + rewrite tset_len. unfold t1. cbn [t_pool]. rewrite app_length. cbn [length]. lia.
  - rewrite deref_get. destruct (get t (t_free t)) as [fo|] eqn:Ef; cbn [bind]; try discriminate.
    destruct (pOpcodeTableIndex opc true) as [info| |] eqn:Ei; cbn [bind]; try discriminate.
    set (t1 := mkTree (t_pool t) (o_next fo)).
    assert (G1 : get t1 (t_free t) = Some fo) by exact Ef.
    rewrite (wr_ok _ _ _ _ G1). cbn [bind]. intros H; inversion H; subst t' p; clear H.
    split; [|split; [|split; [|split]]].
    + eexists. rewrite get_tset, N.eqb_refl, G1. cbn [option_map]. split; [reflexivity|]. cbn. auto.
    + intros i o Hne Hg. rewrite get_tset. apply N.eqb_neq in Hne. rewrite Hne. exact Hg.
    + intros i o Hne Hg. rewrite get_tset in Hg. apply N.eqb_neq in Hne. rewrite Hne in Hg. exact Hg.
    + rewrite tset_len. unfold t1. cbn [t_pool]. lia.
    + rewrite tset_len. unfold t1. cbn [t_pool]. lia.
Qed.

(** ---- payload frames ---- *)
Definition pay_eq {V} (o o' : Object V) : Prop :=
  o_opcode o' = o_opcode o /\ o_infoIndex o' = o_infoIndex o /\ o_tableHandle o' = o_tableHandle o /\
  o_name o' = o_name o /\ o_index o' = o_index o /\ o_amlOffset o' = o_amlOffset o /\ o_pkgEnd o' = o_pkgEnd o /\
  o_value o' = o_value o.

Definition pframe {V} (t t' : ObjectTree V) : Prop :=
  length (t_pool t') = length (t_pool t) /\
  forall i o, get t i = Some o -> exists o', get t' i = Some o' /\ pay_eq o o'.

Lemma pay_eq_refl {V} (o : Object V) : pay_eq o o.
Proof. unfold pay_eq. tauto. Qed.

Lemma pframe_refl {V} (t : ObjectTree V) : pframe t t.
Proof. split; auto. intros i o H. exists o. split; auto. apply pay_eq_refl. Qed.

Lemma pframe_trans {V} (t1 t2 t3 : ObjectTree V) : pframe t1 t2 -> pframe t2 t3 -> pframe t1 t3.
Proof.
  intros [L1 H1] [L2 H2]. split; [congruence|]. intros i o Hg.
  destruct (H1 _ _ Hg) as (o' & Hg' & E). destruct (H2 _ _ Hg') as (o'' & Hg'' & E').
  exists o''. split; auto. unfold pay_eq in *. intuition congruence.
Qed.

Definition pay_setter {V} (f : Object V -> Object V) : Prop := forall o, pay_eq o (f o).

Lemma pframe_tset {V} (t : ObjectTree V) p f : pay_setter f -> pframe t (tset t p f).
Proof.
  intros Hf. split; [apply tset_len|]. intros i o Hg. rewrite get_tset, Hg. cbn [option_map].
  destruct (i =? p); eexists; split; eauto. apply pay_eq_refl.
Qed.

Lemma pframe_wr {V} (t t' : ObjectTree V) p f : pay_setter f -> wr t p f = Ok t' -> pframe t t'.
Proof. intros Hf H. destruct (wr_inv _ _ _ _ H) as [-> _]. apply pframe_tset; auto. Qed.

Lemma ps_parent {V} v : @pay_setter V (set_parent v). Proof. intros o. repeat split. Qed.
Lemma ps_prev {V} v : @pay_setter V (set_prev v). Proof. intros o. repeat split. Qed.
Lemma ps_next {V} v : @pay_setter V (set_next v). Proof. intros o. repeat split. Qed.
Lemma ps_first {V} v : @pay_setter V (set_first v). Proof. intros o. repeat split. Qed.
Lemma ps_last {V} v : @pay_setter V (set_last v). Proof. intros o. repeat split. Qed.
#[global] Hint Resolve ps_parent ps_prev ps_next ps_first ps_last : ps.

Lemma bind_ok {A B} (o : outcome A) (f : A -> outcome B) b :
  bind o f = Ok b -> exists a, o = Ok a /\ f a = Ok b.
Proof. destruct o; cbn [bind]; try discriminate. eauto. Qed.

(** peel the binds of a tree operation, collecting the frames of the writes *)
Ltac pf_step :=
  match goal with
  | H : bind (wr ?t ?p ?f) _ = Ok _ |- _ =>
      let t1 := fresh "t" in let H1 := fresh "W" in let H2 := fresh "K" in
      apply bind_ok in H; destruct H as (t1 & H1 & H2);
      apply pframe_wr in H1; [|auto with ps]
  | H : bind _ _ = Ok _ |- _ =>
      let a := fresh "a" in let H1 := fresh "B" in let H2 := fresh "K" in
      apply bind_ok in H; destruct H as (a & H1 & H2); clear H1
  | H : (if ?c then _ else _) = Ok _ |- _ => destruct c
  | H : wr ?t ?p ?f = Ok _ |- _ => apply pframe_wr in H; [|auto with ps]
  end.

Ltac pf_close :=
  repeat match goal with
  | H : pframe ?a ?b |- pframe ?a _ => eapply pframe_trans; [exact H|]; clear H
  end; try apply pframe_refl.

Lemma append_pframe {V} (t t' : ObjectTree V) o a : append t o a = Ok t' -> pframe t t'.
Proof. unfold append. intros H. repeat pf_step; pf_close. Qed.

Lemma appendAfter_pframe {V} (t t' : ObjectTree V) o a n : appendAfter t o a n = Ok t' -> pframe t t'.
Proof.
  unfold appendAfter. intros H. apply bind_ok in H. destruct H as (nx & _ & H).
  destruct (nx =? InvalidIndex); [eapply append_pframe; eauto|].
  repeat pf_step; pf_close.
Qed.

(** ---- append / appendAfter / newObject packaged for the parser proofs ---- *)
Lemma pframe_inv {V} (t t' : ObjectTree V) i o' : pframe t t' -> get t' i = Some o' ->
  exists o, get t i = Some o /\ pay_eq o o'.
Proof.
  intros [L H] Hg. pose proof (get_lt _ _ _ Hg) as Hlt. rewrite L in Hlt.
  destruct (get_some _ _ Hlt) as (o & Ho). destruct (H _ _ Ho) as (o2 & Hg2 & E).
  assert (o2 = o') by congruence. subst. eauto.
Qed.

Lemma glive_set_kids g i l x : glive g x -> glive (set_kids g i l) x.
Proof. intros [H1 H2]. split; [rewrite set_kids_len; auto|rewrite set_kids_free; auto]. Qed.

Lemma glive_lt g x : glive g x -> x < N.of_nat (length (g_kids g)).
Proof. intros [H _]; exact H. Qed.

Lemma append_full {V} (t : ObjectTree V) g g0 o a :
  R t g -> gwf g0 -> gext g0 g -> glive g0 o -> ~ glive g0 a -> glive g a -> groot g a ->
  exists t', append t o a = Ok t' /\ R t' (astep g (OpAppend o a)) /\ pframe t t' /\
             gext g0 (astep g (OpAppend o a)).
Proof.
  intros HR Hwf Hext Hlo Hna Hla Hroot.
  assert (Hlo' : glive g o) by (eapply ge_live; eauto).
  assert (Hnd : ~ desc g a o) by (eapply nodesc; eauto).
  destruct (append_R t g o a HR) as (t' & Ha & HR'); [cbn [legal]; auto|].
  exists t'. split; auto. split; auto. split; [eapply append_pframe; eauto|].
  apply gext_append; auto. apply glive_lt; auto.
Qed.

Lemma appendAfter_full {V} (t : ObjectTree V) g g0 o a n :
  R t g -> gwf g0 -> gext g0 g -> glive g0 o -> ~ glive g0 a -> glive g a -> groot g a -> In n (kids g o) ->
  exists t', appendAfter t o a n = Ok t' /\ R t' (astep g (OpAppendAfter o a n)) /\ pframe t t' /\
             gext g0 (astep g (OpAppendAfter o a n)).
Proof.
  intros HR Hwf Hext Hlo Hna Hla Hroot Hin.
  assert (Hlo' : glive g o) by (eapply ge_live; eauto).
  assert (Hnd : ~ desc g a o) by (eapply nodesc; eauto).
  destruct (appendAfter_R t g o a n HR) as (t' & Ha & HR'); [cbn [legal]; auto|].
  exists t'. split; auto. split; auto. split; [eapply appendAfter_pframe; eauto|].
  apply gext_appendAfter; auto. apply glive_lt; auto.
Qed.

Lemma In_insert_after_new n a l : In n l -> In a (insert_after n a l).
Proof.
  induction l as [|y l IH]; cbn [insert_after]; [tauto|].
  destruct (N.eqb_spec y n) as [->|Hne].
  - intros _. right; left; auto.
  - intros [->|H]; [contradiction|]. right; auto.
Qed.
