(** C11: [parse_encode] for sequences of tables of declarations and Scope directives over the predefined scopes
    ([parse_encode_tables]); the fragments F0 .. F8, T2, T2F7, TN, TN8 are the programs some recogniser accepts, and each
    fragment theorem is that theorem through the soundness of the recogniser ([parse_encode_one] / [_two] / [_many] for any
    recogniser of items).  Here also the recogniser [in_fragment_F3] and the theorems for F3 and its parts F2, F1, F0.

    The fragment: ONE table; every top-level item is
      - an item of F2 ([Name(SEG, integer constant)], [Device(SEG){...}], [Method(SEG, flags){ declarations }], nested), or
      - [Scope(\SEG){ items of F2 }] or [Scope(SEG){ items of F2 }] where SEG is one of the predefined scopes
        _GPE, _PR_, _SB_, _SI_, _TZ_ (any admissible PkgLength width);
    the encoded table is smaller than 256 MiB.  Productions added to F2: DefScope (PkgLength, NameString = RootChar NameSeg
    | NameSeg, TermList).  Not covered: Scope directives below the top level, Scope over declared objects, Scope(\).

    What a new kind of item touches: the item type with its encoding, sizes and layouts (ParserFragF9.v, and its image
    under [emb] in ParserFragF1.v); one case each in ParserFragF9First.v, ParserFragF9Conn.v, ParserFragF9Calls.v,
    ParserFragF9Top.v ([f1_ok] / [f9_ok]) and ParserFragF9View.v; the abstract-syntax side (ParserFragF1Final.v,
    ParserFragF9Final.v); a recogniser with its soundness (as ParserFragF4Final.v .. ParserFragF8Final.v).  The Scope and table layers speak of items only through those lemmas.
    A new leaf object is a row in [lk_op] .. [lk_nt] (ParserFragArgs.v), a case of [leaf_ast] and of the recogniser. *)
From Coq Require Import NArith ZArith Arith List Bool Lia Permutation.
From Coq Require Import ZifyBool ZifyN ZifyNat.
From FF Require Import Lib.Word Gen.Consts_device_acpi_aml Gen.Consts_aml_tree Aml.Stream Aml.Lex Aml.LexProofs
  Aml.Tree Aml.TreeSpec Aml.Parser Aml.Grammar Aml.LexRoundtrip
  Aml.ParserFragBase Aml.ParserFragFirst Aml.ParserFragF0 Aml.ParserFragF0Top
  Aml.ParserFragF1 Aml.View Aml.ParserFragF1View Aml.ParserFragF0Final Aml.ParserFragSort Aml.WfProgram
  Aml.ParserFragF1Final Aml.ParserFragScope Aml.ParserFragF3View Aml.ParserFragTNTop Aml.ParserFragTNView.
Import ListNotations.
Local Open Scope N_scope.

(** ---- the declared paths only grow ---- *)
Lemma env_mem_app a b p : env_mem (a ++ b) p = env_mem a p || env_mem b p.
Proof. induction a as [|[q k] a IH]; [reflexivity|]. cbn [app env_mem]. rewrite IH, orb_assoc. reflexivity. Qed.

Lemma env_add_mono out q k p : env_mem out p = true -> env_mem (env_add out q k) p = true.
Proof. intros Hm. unfold env_add. destruct (env_mem out q); [exact Hm|]. rewrite env_mem_app, Hm. reflexivity. Qed.

Lemma named_felems_mono sc p : forall elems out, env_mem out p = true -> env_mem (named_felems sc elems out) p = true.
Proof.
  unfold named_felems. induction elems as [|el r IH]; intros out Hm; [exact Hm|]. cbn [fold_left]. apply IH.
  destruct el; try exact Hm. apply env_add_mono. exact Hm.
Qed.

Lemma collect_mono e0 p : forall a sc out, env_mem out p = true -> env_mem (collect e0 sc a out) p = true.
Proof.
  fix IH 1. intros a sc out Hm.
  assert (HB : forall l sc' out', env_mem out' p = true ->
            env_mem ((fix body (l : list ast) (sc : path) (out : env) : env :=
                        match l with [] => out | x :: r => body r sc (collect e0 sc x out) end) l sc' out') p = true).
  { induction l as [|x r IHr]; intros sc' out' Hm'; [exact Hm'|]. apply IHr. apply IH. exact Hm'. }
  destruct a; cbn [collect]; try exact Hm; try (apply named_felems_mono; exact Hm);
    try (destruct (decl_path sc nm); [|exact Hm]; first [apply HB; apply env_add_mono; exact Hm|apply env_add_mono; exact Hm]).
  destruct (lookup e0 sc nm); [|exact Hm]. apply HB. exact Hm.
Qed.

Lemma collect_tables_mono e0 p tables : env_mem e0 p = true -> env_mem (collect_tables e0 tables) p = true.
Proof.
  unfold collect_tables. generalize e0 at 1 3. intros e1. revert e1. 
  induction tables as [|tb r IH]; intros out Hm; [exact Hm|]. cbn [fold_left]. apply IH.
  revert out Hm. induction tb as [|a tb IHt]; intros out Hm; [exact Hm|]. cbn [fold_left]. apply IHt. apply collect_mono. exact Hm.
Qed.

Lemma resolve_go_mono p tables : forall fuel e, env_mem e p = true -> env_mem (resolve_go fuel tables e) p = true.
Proof.
  induction fuel as [|f IH]; intros e Hm; [exact Hm|]. cbn [resolve_go].
  destruct (Nat.eqb (length (collect_tables e tables)) (length e)); [exact Hm|]. apply IH. apply collect_tables_mono. exact Hm.
Qed.

Lemma resolve_env_default tables d : 1 <= d <= 5 -> env_mem (resolve_env tables) [dseg d] = true.
Proof.
  intros Hd. unfold resolve_env. apply resolve_go_mono.
  assert (Hc : d = 1 \/ d = 2 \/ d = 3 \/ d = 4 \/ d = 5) by lia.
  destruct Hc as [ -> | [ -> | [ -> | [ -> | -> ] ] ] ]; reflexivity.
Qed.

Lemma lookup_sc e root seg : env_mem e [seg] = true -> lookup e [] (sc_name root seg) = Some [seg].
Proof.
  intros Hm. unfold lookup, start_scope, sc_name. cbn [n_root n_carets n_segs].
  destruct root; cbn [negb andb app]; [rewrite Hm; reflexivity|].
  change (lenN (@nil N) <? 0) with false. cbv iota. cbn [length Nat.sub firstn app N.eqb search_up]. rewrite Hm. reflexivity.
Qed.

(** ---- the programs of the fragment ---- *)
Definition titem_ast (x : titem) : ast :=
  match x with
  | TItem it => item_ast it
  | TScope k root d body => AScope k (sc_name root (dseg d)) (map item_ast body)
  end.

(** [\SEG] or [SEG] with SEG a predefined scope: (written with a root prefix?, number of the scope) *)
Definition scope_target (nm : namestr) : option (bool * N) :=
  match n_segs nm with
  | [seg] =>
      if (n_carets nm =? 0) && negb (n_multi nm) then
        if seg =? dseg 1 then Some (n_root nm, 1) else if seg =? dseg 2 then Some (n_root nm, 2)
        else if seg =? dseg 3 then Some (n_root nm, 3) else if seg =? dseg 4 then Some (n_root nm, 4)
        else if seg =? dseg 5 then Some (n_root nm, 5) else None
      else None
  | _ => None
  end.

Definition f3_titem (a : ast) : option titem :=
  match a with
  | AScope k nm body =>
      match scope_target nm, f2_items body with
      | Some (root, d), Some b => Some (TScope k root d b)
      | _, _ => None
      end
  | _ => match f2_item a with Some it => Some (TItem it) | None => None end
  end.

Fixpoint f3_titems (l : list ast) : option (list titem) :=
  match l with
  | [] => Some []
  | x :: t => match f3_titem x, f3_titems t with Some i, Some r => Some (i :: r) | _, _ => None end
  end.

Definition in_fragment_F3 (tables : list (list ast)) : bool :=
  match tables with
  | [p] => match f3_titems p with Some _ => lenN (encode_table p) <? 0x10000000 | None => false end
  | _ => false
  end.

Definition tshape (x : titem) : bool :=
  match x with
  | TItem it => shape_ok it
  | TScope _ _ d body => (1 <=? d) && (d <=? 5) && forallb shape_ok body
  end.

Lemma scope_target_eq nm root d : scope_target nm = Some (root, d) -> nm = sc_name root (dseg d) /\ (1 <=? d) && (d <=? 5) = true.
Proof.
  unfold scope_target. destruct nm as [r carets multi segs]. cbn [n_segs n_root n_carets n_multi].
  destruct segs as [|s [|s2 segs]]; try discriminate.
  destruct (N.eqb_spec carets 0) as [->|]; cbn [andb]; try discriminate.
  destruct multi; cbn [negb]; try discriminate.
  destruct (N.eqb_spec s (dseg 1)) as [->|_]; [intros E; inversion E; split; reflexivity|].
  destruct (N.eqb_spec s (dseg 2)) as [->|_]; [intros E; inversion E; split; reflexivity|].
  destruct (N.eqb_spec s (dseg 3)) as [->|_]; [intros E; inversion E; split; reflexivity|].
  destruct (N.eqb_spec s (dseg 4)) as [->|_]; [intros E; inversion E; split; reflexivity|].
  destruct (N.eqb_spec s (dseg 5)) as [->|_]; [intros E; inversion E; split; reflexivity|]. discriminate.
Qed.

(** the recognisers of top-level items and of tables over a recogniser [f] of items; [f3_titem] is [titem_of f2_item] *)
Section Lift.
Variable f : ast -> option item.
Hypothesis f_ast : forall a, sound f a.

Definition titem_of (a : ast) : option titem :=
  match a with
  | AScope k nm body =>
      match scope_target nm, omap f body with
      | Some (root, d), Some b => Some (TScope k root d b)
      | _, _ => None
      end
  | _ => match f a with Some it => Some (TItem it) | None => None end
  end.

Lemma titem_of_ast a x : titem_of a = Some x -> a = titem_ast x /\ tshape x = true.
Proof.
  assert (Hgen : match f a with Some it => Some (TItem it) | None => None end = Some x -> a = titem_ast x /\ tshape x = true).
  { destruct (f a) as [it|] eqn:Ei; [|discriminate]. intros E; inversion E. exact (f_ast a it Ei). }
  destruct a; try exact Hgen. clear Hgen. cbn [titem_of].
  destruct (scope_target nm) as [[root d]|] eqn:En; [|discriminate]. destruct (omap f body) as [b|] eqn:Eb; [|discriminate].
  intros E; inversion E. destruct (scope_target_eq _ _ _ En) as (-> & Hd). cbn [titem_ast tshape].
  destruct (items_sound f body b (fun y _ => f_ast y) Eb) as (-> & Hs). rewrite Hd, Hs. split; reflexivity.
Qed.

Lemma titems_of_ast p ts : omap titem_of p = Some ts -> p = map titem_ast ts /\ forallb tshape ts = true.
Proof. apply omap_sound. intros a _. apply titem_of_ast. Qed.

Lemma tables_of_ast l tss : omap (omap titem_of) l = Some tss -> l = map (map titem_ast) tss /\ forallb (forallb tshape) tss = true.
Proof. apply omap_sound. intros p _. apply titems_of_ast. Qed.
End Lift.

Lemma lift_items its : forallb shape_ok its = true ->
  map item_ast its = map titem_ast (map TItem its) /\ forallb tshape (map TItem its) = true /\ noscope (map TItem its) = true.
Proof.
  induction its as [|x t IH]; intros Hs; [repeat split|]. cbn [forallb] in Hs. apply andb_prop in Hs. destruct Hs as [Hx Ht].
  destruct (IH Ht) as (A & B & C). cbn [map forallb noscope tshape titem_ast]. rewrite Hx, B, <- A. fold (noscope (map TItem t)). rewrite C. repeat split.
Qed.

(** ---- encoding ---- *)
Lemma encode_body body : forallb shape_ok body = true -> flat_map encode (map item_ast body) = enc_items body.
Proof. apply encode_items. Qed.

Lemma encode_titem x : tshape x = true -> encode (titem_ast x) = enc_titem x.
Proof.
  destruct x as [it|k root d body]; intros Hs; [apply encode_item; exact Hs|]. cbn [tshape] in Hs. apply andb_prop in Hs.
  cbn [titem_ast encode enc_titem]. unfold enc_pkg, sc_body. rewrite (encode_body body (proj2 Hs)). reflexivity.
Qed.

Lemma encode_titems ts : forallb tshape ts = true -> encode_table (map titem_ast ts) = enc_titems ts.
Proof.
  unfold encode_table, enc_titems. induction ts as [|x t IH]; intros Hs; [reflexivity|]. cbn [forallb] in Hs. apply andb_prop in Hs. destruct Hs as [Hx Ht].
  cbn [map flat_map]. rewrite (encode_titem x Hx), (IH Ht). reflexivity.
Qed.

Lemma encode_tables tss : forallb (forallb tshape) tss = true -> map encode_table (map (map titem_ast) tss) = map enc_titems tss.
Proof.
  induction tss as [|ts r IH]; intros Hs; [reflexivity|]. cbn [forallb] in Hs. apply andb_prop in Hs. destruct Hs as [Hx Ht].
  cbn [map]. rewrite (encode_titems ts Hx), (IH Ht). reflexivity.
Qed.

(** ---- well-formedness ---- *)
Lemma wf_titem e ms x : tshape x = true -> wf_ast e ms [] (titem_ast x) = true -> titem_okb x = true.
Proof.
  destruct x as [it|k root d body]; intros Hs Hw; [apply (wf_item e ms it [] Hs Hw)|].
  cbn [tshape] in Hs. apply andb_prop in Hs. destruct Hs as [Hd Hs]. cbn [titem_ast wf_ast] in Hw. cbn [titem_okb].
  apply andb_prop in Hw. destruct Hw as [Hw Hall]. apply andb_prop in Hw. destruct Hw as [_ Hk].
  rewrite sumlen_eq, (encode_body body Hs) in Hk. rewrite Hd. cbn [andb].
  apply andb_true_intro. split.
  - unfold k_ok in Hk. unfold pkglen_okb, sc_body. rewrite lenN_app. exact Hk.
  - destruct (lookup e [] (sc_name root (dseg d))) as [sc|]; [|discriminate].
    match type of Hall with ?all _ _ = true => set (ALL := all) in Hall end. clear Hk.
    induction body as [|y t IHt]; [reflexivity|]. cbn [map] in Hall. cbn in Hall. apply andb_prop in Hall. destruct Hall as [Hy Ht].
    cbn [forallb] in Hs. apply andb_prop in Hs. destruct Hs as [Hsy Hst].
    cbn [forallb]. rewrite (wf_item e ms y sc Hsy Hy). apply IHt; assumption.
Qed.

Lemma wf_titems e ms ts : forallb tshape ts = true -> forallb (wf_ast e ms []) (map titem_ast ts) = true -> forallb titem_okb ts = true.
Proof.
  induction ts as [|x t IH]; intros Hs Hw; [reflexivity|]. cbn [map forallb] in Hs, Hw |- *. apply andb_prop in Hw. destruct Hw as [Hx Ht].
  apply andb_prop in Hs. destruct Hs as [Hsx Hst].
  rewrite (wf_titem e ms x Hsx Hx), (IH Hst Ht). reflexivity.
Qed.

Lemma wf_tables_okb : forall tss done, forallb (forallb tshape) tss = true -> wf_tables done (map (map titem_ast) tss) = true ->
  Forall (fun ts => forallb titem_okb ts = true) tss.
Proof.
  induction tss as [|ts r IH]; intros done Hs Hwf; [constructor|]. cbn [map wf_tables] in Hwf. apply andb_prop in Hwf. destruct Hwf as [Hw Hr].
  cbn [forallb] in Hs. apply andb_prop in Hs. destruct Hs as [Hx Ht].
  constructor; [apply (wf_titems _ _ ts Hx Hw)|apply (IH _ Ht Hr)].
Qed.

(** ---- the specification side ---- *)
Lemma entries_titem e x : (forall d, 1 <= d <= 5 -> env_mem e [dseg d] = true) -> tshape x = true ->
  entries e [] (titem_ast x) = sentries3 [x].
Proof.
  intros He Hs. unfold sentries3. cbn [flat_map]. rewrite app_nil_r.
  destruct x as [it|k root d body]; [apply entries_item; exact Hs|].
  cbn [tshape] in Hs. apply andb_prop in Hs. destruct Hs as [Hd Hs]. apply andb_prop in Hd. destruct Hd as [Hd1 Hd5]. apply N.leb_le in Hd1, Hd5.
  cbn [titem_ast entries]. rewrite (lookup_sc e root (dseg d) (He d (conj Hd1 Hd5))).
  unfold sentries. generalize [dseg d]. intros sc. induction body as [|y t IHt]; [reflexivity|]. cbn [map flat_map].
  cbn [forallb] in Hs. apply andb_prop in Hs. destruct Hs as [Hsy Hst].
  rewrite (entries_item e y sc Hsy), (IHt Hst). reflexivity.
Qed.

Lemma entries_titems e ts : (forall d, 1 <= d <= 5 -> env_mem e [dseg d] = true) -> forallb tshape ts = true ->
  flat_map (entries e []) (map titem_ast ts) = sentries3 ts.
Proof.
  intros He. induction ts as [|x t IH]; intros Hs; [reflexivity|]. cbn [map flat_map].
  cbn [forallb] in Hs. apply andb_prop in Hs. destruct Hs as [Hsx Hst].
  rewrite (entries_titem e x He Hsx), (IH Hst). unfold sentries3. cbn [flat_map]. rewrite app_nil_r. reflexivity.
Qed.

Lemma entries_tables e tss : (forall d, 1 <= d <= 5 -> env_mem e [dseg d] = true) -> forallb (forallb tshape) tss = true ->
  flat_map (fun t => flat_map (entries e []) t) (map (map titem_ast) tss) = flat_map sentries3 tss.
Proof.
  intros He. induction tss as [|ts r IH]; intros Hs; [reflexivity|]. cbn [forallb] in Hs. apply andb_prop in Hs. destruct Hs as [Hx Ht].
  cbn [map flat_map]. rewrite (entries_titems e ts He Hx), (IH Ht). reflexivity.
Qed.

(** The size condition keeps the table length in 32 bits and the pool below InvalidIndex. *)
Theorem parse_encode_tables tss ts :
  forallb (forallb tshape) (tss ++ [ts]) = true -> forallb noscope tss = true ->
  wf_program (map (map titem_ast) (tss ++ [ts])) = true ->
  6 + aml_sizeofSDTHeader + lenN (flat_map encode_table (map (map titem_ast) (tss ++ [ts]))) < InvalidIndex ->
  parse_encode_statement (map (map titem_ast) (tss ++ [ts])).
Proof.
  intros Hs Hns Hwf Hsz.
  pose proof (wf_tables_okb _ _ Hs Hwf) as Hokb.
  rewrite !flat_map_concat_map, (encode_tables _ Hs), <- flat_map_concat_map in Hsz.
  apply Forall_app in Hokb. destruct Hokb as [HokF HokL]. pose proof (Forall_inv HokL) as HokT.
  assert (Hfr : Forall front_ok tss).
  { rewrite forallb_forall in Hns. rewrite Forall_forall in HokF |- *. intros x Hx. split; [apply Hns; exact Hx|apply HokF; exact Hx]. }
  unfold parse_encode_statement, parse_program, load. rewrite (encode_tables _ Hs).
  destruct default_rep as (t0 & Et0 & H0). rewrite Et0.
  destruct (load_tn tss ts t0 H0 Hfr HokT Hsz) as (tF & gF & plF & El & HF & DF).
  rewrite El. change (0 =? 0) with true. cbv iota.
  rewrite (view_tn_eq tF gF plF HF (images (tss ++ [ts])) tss ts DF HokF HokT eq_refl).
  unfold ns. rewrite (entries_tables _ _ (fun d Hd' => resolve_env_default _ d Hd') Hs).
  rewrite flat_map_app. cbn [flat_map]. rewrite app_nil_r.
  f_equal. apply sort_perm. apply view_tn_perm; assumption.
Qed.

Lemma small_tables (l : list (list ast)) : lenN (flat_map encode_table l) < 0x20000000 ->
  6 + aml_sizeofSDTHeader + lenN (flat_map encode_table l) < InvalidIndex.
Proof. change aml_sizeofSDTHeader with 36. change InvalidIndex with 0xffffffff. lia. Qed.

Section Fragments.
Variable f : ast -> option item.
Hypothesis f_ast : forall a, sound f a.

Theorem parse_encode_one : forall tables, wf_program tables = true ->
  match tables with
  | [p] => match omap (titem_of f) p with Some _ => lenN (encode_table p) <? 0x10000000 | None => false end
  | _ => false
  end = true -> parse_encode_statement tables.
Proof.
  intros tables Hwf Hfr. destruct tables as [|p [|p2 rest]]; try discriminate.
  destruct (omap (titem_of f) p) as [ts|] eqn:Ets; [|discriminate]. apply N.ltb_lt in Hfr.
  destruct (titems_of_ast f f_ast p ts Ets) as (-> & Hs).
  apply (parse_encode_tables [] ts); [cbn [app forallb]; rewrite Hs; reflexivity|reflexivity|exact Hwf|].
  apply small_tables. cbn [app map flat_map]. rewrite app_nil_r. lia.
Qed.

Theorem parse_encode_two : forall tables, wf_program tables = true ->
  match tables with
  | [p1; p2] =>
      match omap f p1, omap (titem_of f) p2 with
      | Some _, Some _ => (lenN (encode_table p1) <? 0x10000000) && (lenN (encode_table p2) <? 0x10000000)
      | _, _ => false
      end
  | _ => false
  end = true -> parse_encode_statement tables.
Proof.
  intros tables Hwf Hfr. destruct tables as [|p1 [|p2 [|p3 rest]]]; try discriminate.
  destruct (omap f p1) as [its1|] eqn:E1; [|discriminate]. destruct (omap (titem_of f) p2) as [ts|] eqn:E2; [|discriminate].
  apply andb_prop in Hfr. destruct Hfr as [Hfr1 Hfr2]. apply N.ltb_lt in Hfr1. apply N.ltb_lt in Hfr2.
  destruct (items_sound f p1 its1 (fun y _ => f_ast y) E1) as (-> & Hs1). destruct (titems_of_ast f f_ast p2 ts E2) as (-> & Hs).
  destruct (lift_items its1 Hs1) as (E & Hs1' & Hn1). rewrite E in *.
  apply (parse_encode_tables [map TItem its1] ts); [cbn [app forallb]; rewrite Hs1', Hs; reflexivity|cbn [forallb]; rewrite Hn1; reflexivity|exact Hwf|].
  apply small_tables. cbn [app map flat_map]. rewrite app_nil_r, lenN_app. lia.
Qed.

Theorem parse_encode_many : forall tables, wf_program tables = true ->
  match tables with
  | [] => false
  | _ => match omap (omap (titem_of f)) tables with
         | Some tss => forallb noscope (removelast tss) && (6 + lenN (flat_map encode_table tables) <? 0x10000000)
         | None => false
         end
  end = true -> parse_encode_statement tables.
Proof.
  intros tables Hwf Hfr.
  assert (Hne : tables <> []) by (intros ->; discriminate Hfr).
  assert (Hfr' : match omap (omap (titem_of f)) tables with
                 | Some tss => forallb noscope (removelast tss) && (6 + lenN (flat_map encode_table tables) <? 0x10000000)
                 | None => false
                 end = true) by (destruct tables; [congruence|exact Hfr]).
  clear Hfr. destruct (omap (omap (titem_of f)) tables) as [tss|] eqn:Ets; [|discriminate].
  apply andb_prop in Hfr'. destruct Hfr' as [Hns Hsz]. apply N.ltb_lt in Hsz.
  destruct (tables_of_ast f f_ast tables tss Ets) as (E & Hs). subst tables.
  destruct (exists_last (l := tss)) as (front & ts & ->).
  { intros ->. apply Hne. reflexivity. }
  rewrite removelast_last in Hns.
  apply parse_encode_tables; [exact Hs|exact Hns|exact Hwf|apply small_tables; lia].
Qed.
End Fragments.

Theorem parse_encode_F3 : forall tables,
  wf_program tables = true -> in_fragment_F3 tables = true -> parse_encode_statement tables.
Proof. exact (parse_encode_one f2_item f2_item_ast). Qed.

Theorem parse_encode_items its : forallb shape_ok its = true -> wf_program [map item_ast its] = true ->
  lenN (encode_table (map item_ast its)) < 0x10000000 -> parse_encode_statement [map item_ast its].
Proof.
  intros Hs. destruct (lift_items its Hs) as (-> & Hs' & _). intros Hwf Hsz.
  apply (parse_encode_tables [] (map TItem its)); [cbn [app forallb]; rewrite Hs'; reflexivity|reflexivity|exact Hwf|].
  apply small_tables. cbn [app map flat_map]. rewrite app_nil_r. lia.
Qed.

Theorem parse_encode_F2 : forall tables,
  wf_program tables = true -> in_fragment_F2 tables = true -> parse_encode_statement tables.
Proof.
  intros tables Hwf Hfr. unfold in_fragment_F2 in Hfr.
  destruct tables as [|p [|p2 rest]]; try discriminate.
  destruct (f2_items p) as [its|] eqn:Eits; [|discriminate]. apply N.ltb_lt in Hfr.
  destruct (f2_items_ast p its Eits) as (-> & Hs). apply parse_encode_items; assumption.
Qed.

Theorem parse_encode_F1 : forall tables,
  wf_program tables = true -> in_fragment_F1 tables = true -> parse_encode_statement tables.
Proof. intros tables Hwf Hfr. apply parse_encode_F2; [exact Hwf|apply in_F1_F2; exact Hfr]. Qed.

Theorem parse_encode_F0 : forall tables,
  wf_program tables = true -> in_fragment_F0 tables = true -> parse_encode_statement tables.
Proof.
  intros tables Hwf Hfr. unfold in_fragment_F0 in Hfr.
  destruct tables as [|p [|p2 rest]]; try discriminate.
  apply andb_prop in Hfr. destruct Hfr as [Hitems Hsz]. apply N.ltb_lt in Hsz.
  destruct (f0_items p Hitems) as (ds & ->). change decl_ast with (fun d => item_ast (IName d)) in *. rewrite <- map_map in *.
  apply parse_encode_items; [|assumption..]. clear. induction ds as [|d ds IH]; [reflexivity|exact IH].
Qed.
