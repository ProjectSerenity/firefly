(** C11, lexical level: the lexer functions of Aml/Lex.v invert the encoders of Aml/Grammar.v
    ([enc_pkglen] in each admissible width, [le_bytes], strings, every name form, [enc_op]). *)
From Coq Require Import NArith ZArith List Bool Lia.
From Coq Require Import ZifyBool ZifyN ZifyNat.
From FF Require Import Lib.Word Gen.Consts_device_acpi_aml Aml.Stream Aml.Lex Aml.LexProofs Aml.Grammar.
Import ListNotations.
Local Open Scope N_scope.

(** ---- bit arithmetic ---- *)
Lemma testbit_small b m : b < 2 ^ m -> N.testbit b m = false.
Proof.
  intros H. destruct (N.eq_dec b 0) as [->|Hb]; [apply N.bits_0|].
  apply N.bits_above_log2. apply N.log2_lt_pow2; lia.
Qed.

Lemma land_shiftl_small a n b : b < 2 ^ n -> N.land (a * 2 ^ n) b = 0.
Proof.
  intros H. apply N.bits_inj_iff. intros m. rewrite N.land_spec, N.bits_0.
  destruct (N.lt_ge_cases m n) as [L|L].
  - rewrite N.mul_pow2_bits_low by exact L. reflexivity.
  - rewrite (testbit_small b m), andb_false_r; auto.
    eapply N.lt_le_trans; [exact H|]. apply N.pow_le_mono_r; lia.
Qed.

Lemma lor_shiftl_small a n b : b < 2 ^ n -> N.lor (N.shiftl a n) b = a * 2 ^ n + b.
Proof.
  intros H. rewrite N.shiftl_mul_pow2.
  rewrite <- N.lxor_lor by (apply land_shiftl_small; exact H).
  symmetry. apply N.add_nocarry_lxor. apply land_shiftl_small; exact H.
Qed.

Lemma lor_small_shiftl acc a n : acc < 2 ^ n -> N.lor acc (N.shiftl a n) = acc + a * 2 ^ n.
Proof. intros H. rewrite N.lor_comm, lor_shiftl_small by exact H. lia. Qed.

Lemma lor_mul_small a n b : b < 2 ^ n -> N.lor (a * 2 ^ n) b = a * 2 ^ n + b.
Proof. intros H. rewrite <- (lor_shiftl_small a n b H). rewrite N.shiftl_mul_pow2. reflexivity. Qed.

Lemma lor2 b1 low : low < 16 -> N.lor (N.shiftl b1 4) low = b1 * 16 + low.
Proof. intros H. rewrite lor_shiftl_small by exact H. reflexivity. Qed.

Lemma lor3 b2 b1 low : b1 < 256 -> low < 16 ->
  N.lor (N.lor (N.shiftl b2 12) (N.shiftl b1 4)) low = b2 * 4096 + b1 * 16 + low.
Proof.
  intros H1 H0. rewrite (N.shiftl_mul_pow2 b1 4). change (2 ^ 4) with 16.
  rewrite lor_shiftl_small by (change (2 ^ 12) with 4096; lia). change (2 ^ 12) with 4096.
  replace (b2 * 4096 + b1 * 16) with ((b2 * 256 + b1) * 2 ^ 4) by (change (2 ^ 4) with 16; lia).
  rewrite lor_mul_small by exact H0. change (2 ^ 4) with 16. lia.
Qed.

Lemma lor4 b3 b2 b1 low : b2 < 256 -> b1 < 256 -> low < 16 ->
  N.lor (N.lor (N.lor (N.shiftl b3 20) (N.shiftl b2 12)) (N.shiftl b1 4)) low = b3 * 1048576 + b2 * 4096 + b1 * 16 + low.
Proof.
  intros H2 H1 H0. rewrite (N.shiftl_mul_pow2 b2 12), (N.shiftl_mul_pow2 b1 4). change (2 ^ 4) with 16. change (2 ^ 12) with 4096.
  rewrite lor_shiftl_small by (change (2 ^ 20) with 1048576; lia). change (2 ^ 20) with 1048576.
  replace (b3 * 1048576 + b2 * 4096) with ((b3 * 256 + b2) * 2 ^ 12) by (change (2 ^ 12) with 4096; lia).
  rewrite lor_mul_small by (change (2 ^ 12) with 4096; lia). change (2 ^ 12) with 4096.
  replace ((b3 * 256 + b2) * 4096 + b1 * 16) with ((b3 * 65536 + b2 * 256 + b1) * 2 ^ 4) by (change (2 ^ 4) with 16; lia).
  rewrite lor_mul_small by exact H0. change (2 ^ 4) with 16. lia.
Qed.

Lemma land_255 x : N.land x 0xff = x mod 256.
Proof. exact (land_ones_mod x 8). Qed.
Lemma land_15 x : N.land x 0xf = x mod 16.
Proof. exact (land_ones_mod x 4). Qed.

(** ---- reading the bytes of a token ---- *)
Lemma byte_at_app pre x post : byte_at (pre ++ x :: post) (lenN pre) = Some x.
Proof.
  unfold byte_at, lenN. rewrite Nat2N.id. rewrite nth_error_app2 by lia. rewrite Nat.sub_diag. reflexivity.
Qed.

(** a reader positioned in front of [tok]: data = pre ++ tok ++ post, offset = |pre|, the token lies inside the
    current package *)
Record at_token (r : reader) (pre tok post : list N) : Prop := mkAt {
  at_data : r_data r = pre ++ tok ++ post;
  at_off : r_offset r = lenN pre;
  at_end : lenN pre + lenN tok <= r_pkgEnd r;
  at_wf : reader_wf r
}.

Lemma lenN_app {A} (a b : list A) : lenN (a ++ b) = lenN a + lenN b.
Proof. unfold lenN. rewrite app_length. lia. Qed.
Lemma lenN_cons {A} (x : A) (l : list A) : lenN (x :: l) = 1 + lenN l.
Proof. unfold lenN. cbn [length]. lia. Qed.

(** one read: the reader moves behind the first byte of the token *)
Lemma read_token r pre b tok post : at_token r pre (b :: tok) post ->
  readByte r = Ok (Some b, set_offset_raw r (lenN pre + 1)) /\
  at_token (set_offset_raw r (lenN pre + 1)) (pre ++ [b]) tok post.
Proof.
  intros [D O E W]. rewrite lenN_cons in E.
  destruct W as (W1 & W2 & W3 & W4).
  unfold readByte, eof. rewrite O.
  assert (Hlt : r_pkgEnd r <=? lenN pre = false) by (apply N.leb_gt; lia). rewrite Hlt.
  rewrite D. cbn [app]. rewrite byte_at_app.
  rewrite w32_small by (unfold two32 in *; lia).
  split; [reflexivity|].
  constructor; cbn [r_data r_offset r_pkgEnd set_offset_raw].
  - rewrite D. rewrite <- app_assoc. reflexivity.
  - rewrite lenN_app. change (lenN [b]) with 1. lia.
  - rewrite lenN_app. change (lenN [b]) with 1. lia.
  - unfold reader_wf. cbn [r_data r_len r_pkgEnd]. auto.
Qed.

Lemma at_token_nil_offset r pre post : at_token r pre [] post -> r_offset r = lenN pre.
Proof. intros [D O E W]. exact O. Qed.

Lemma set_offset_raw_twice r a b : set_offset_raw (set_offset_raw r a) b = set_offset_raw r b.
Proof. reflexivity. Qed.

(** close  Ok (x, true, set_offset_raw .. o) = Ok (y, true, set_offset_raw r o')  by arithmetic on x and o *)
Ltac close_ok :=
  rewrite ?set_offset_raw_twice; rewrite ?lenN_app;
  repeat match goal with |- context [lenN [?b]] => change (lenN [b]) with 1 end;
  match goal with
  | |- Ok (?x, true, set_offset_raw ?r ?o) = Ok (?y, true, set_offset_raw ?r ?o') =>
      let Hx := fresh "Hx" in let Ho := fresh "Ho" in
      assert (Hx : x = y); [|assert (Ho : o = o'); [lia|rewrite Hx, Ho; reflexivity]]
  end.

(** ---- PkgLength ---- *)
Definition pkglen_admissible (k v : N) : Prop :=
  (k = 1 /\ v < 64) \/ (k = 2 /\ v < 2 ^ 12) \/ (k = 3 /\ v < 2 ^ 20) \/ (k = 4 /\ v < 2 ^ 28).

Lemma shiftr6 x : N.shiftr x 6 = x / 64.
Proof. rewrite N.shiftr_div_pow2. reflexivity. Qed.
Lemma shiftr4 x : N.shiftr x 4 = x / 16.
Proof. rewrite N.shiftr_div_pow2. reflexivity. Qed.
Lemma shiftr8 x : N.shiftr x 8 = x / 256.
Proof. rewrite N.shiftr_div_pow2. reflexivity. Qed.

Lemma lead_byte k v : 2 <= k <= 4 ->
  N.lor (N.shiftl (k - 1) 6) (N.land v 0xf) = (k - 1) * 64 + v mod 16.
Proof.
  intros H. rewrite land_15. rewrite lor_shiftl_small; [reflexivity|].
  change (2 ^ 6) with 64. pose proof (N.mod_lt v 16). lia.
Qed.

(** the lead byte's low nibble and the following bytes are the digits of [v]: put together again digit by digit
    ([lia] over the nested divisions is dear) *)
Lemma lead_nibble c v : (c * 64 + v mod 16) mod 16 = v mod 16.
Proof. replace (c * 64) with (c * 4 * 16) by lia. rewrite N.add_comm, N.mod_add by discriminate. apply N.mod_mod. discriminate. Qed.

Lemma digit_step v b : b <> 0 -> v / b * b + v mod b = v.
Proof. intros Hb. rewrite N.mul_comm. symmetry. apply N.div_mod'. Qed.

Theorem pkglen_roundtrip : forall k v r pre post,
  pkglen_admissible k v -> at_token r pre (enc_pkglen k v) post ->
  parsePkgLength r = Ok (v, true, set_offset_raw r (lenN pre + k)).
Proof.
  intros k v r pre post A T. unfold parsePkgLength.
  destruct A as [(-> & Hv)|[(-> & Hv)|[(-> & Hv)|(-> & Hv)]]].
  - (* one byte *)
    unfold enc_pkglen in T. cbn [N.eqb Pos.eqb] in T.
    destruct (read_token _ _ _ _ _ T) as (R & _). rewrite R. cbn [bind].
    rewrite shiftr6. assert (v / 64 = 0) by (apply N.div_small; lia). rewrite H. cbn [N.eqb]. reflexivity.
  - (* two bytes *)
    unfold enc_pkglen in T. change (2 =? 1) with false in T. cbn iota in T.
    rewrite lead_byte in T by lia. change (N.to_nat (2 - 1)) with 1%nat in T. cbn [le_bytes] in T.
    rewrite land_255, shiftr4 in T.
    destruct (read_token _ _ _ _ _ T) as (R & T1). rewrite R. cbn [bind].
    rewrite shiftr6.
    assert (E6 : ((2 - 1) * 64 + v mod 16) / 64 = 1) by (change (2 ^ 12) with 4096 in Hv; lia). rewrite E6. cbn [N.eqb Pos.eqb].
    destruct (read_token _ _ _ _ _ T1) as (R1 & _). rewrite R1. cbn [bind].
    rewrite land_15, lor2 by (apply N.mod_lt; discriminate).
    clear E6. close_ok. change (2 ^ 12) with 4096 in Hv. rewrite lead_nibble, (N.mod_small (v / 16) 256) by (repeat (apply N.div_lt_upper_bound; [discriminate|]); exact Hv).
    apply digit_step. discriminate.
  - (* three bytes *)
    unfold enc_pkglen in T. change (3 =? 1) with false in T. cbn iota in T.
    rewrite lead_byte in T by lia. change (N.to_nat (3 - 1)) with 2%nat in T. cbn [le_bytes] in T.
    rewrite !land_255, shiftr4, shiftr8 in T.
    destruct (read_token _ _ _ _ _ T) as (R & T1). rewrite R. cbn [bind].
    rewrite shiftr6.
    assert (E6 : ((3 - 1) * 64 + v mod 16) / 64 = 2) by lia. rewrite E6. cbn [N.eqb Pos.eqb].
    destruct (read_token _ _ _ _ _ T1) as (R1 & T2). rewrite R1. cbn [bind].
    destruct (read_token _ _ _ _ _ T2) as (R2 & _). rewrite R2. cbn [bind].
    rewrite land_15.
    change (2 ^ 20) with 1048576 in Hv.
    rewrite lor3 by (apply N.mod_lt; discriminate).
    clear E6. close_ok. rewrite lead_nibble, (N.mod_small (v / 16 / 256) 256) by (repeat (apply N.div_lt_upper_bound; [discriminate|]); exact Hv).
    replace (v / 16 / 256 * 4096 + (v / 16) mod 256 * 16) with ((v / 16 / 256 * 256 + (v / 16) mod 256) * 16) by ring.
    rewrite !digit_step by discriminate. reflexivity.
  - (* four bytes *)
    unfold enc_pkglen in T. change (4 =? 1) with false in T. cbn iota in T.
    rewrite lead_byte in T by lia. change (N.to_nat (4 - 1)) with 3%nat in T. cbn [le_bytes] in T.
    rewrite !land_255, shiftr4, !shiftr8 in T.
    destruct (read_token _ _ _ _ _ T) as (R & T1). rewrite R. cbn [bind].
    rewrite shiftr6.
    assert (E6 : ((4 - 1) * 64 + v mod 16) / 64 = 3) by lia. rewrite E6. cbn [N.eqb Pos.eqb].
    destruct (read_token _ _ _ _ _ T1) as (R1 & T2). rewrite R1. cbn [bind].
    destruct (read_token _ _ _ _ _ T2) as (R2 & T3). rewrite R2. cbn [bind].
    destruct (read_token _ _ _ _ _ T3) as (R3 & _). rewrite R3. cbn [bind].
    rewrite land_15.
    change (2 ^ 28) with 268435456 in Hv.
    rewrite lor4 by (apply N.mod_lt; discriminate).
    clear E6. close_ok. rewrite lead_nibble, (N.mod_small (v / 16 / 256 / 256) 256) by (repeat (apply N.div_lt_upper_bound; [discriminate|]); exact Hv).
    replace (v / 16 / 256 / 256 * 1048576 + (v / 16 / 256) mod 256 * 4096 + (v / 16) mod 256 * 16)
      with (((v / 16 / 256 / 256 * 256 + (v / 16 / 256) mod 256) * 256 + (v / 16) mod 256) * 16) by ring.
    rewrite !digit_step by discriminate. reflexivity.
Qed.

(** ---- numbers ---- *)
Lemma le_bytes_S c v : le_bytes (S c) v = v mod 256 :: le_bytes c (v / 256).
Proof. cbn [le_bytes]. rewrite land_255, shiftr8. reflexivity. Qed.

Lemma parseNum_go_roundtrip cnt : forall c acc x r pre post,
  c + N.of_nat cnt <= 8 -> acc < 2 ^ (c * 8) -> x < 2 ^ (N.of_nat cnt * 8) ->
  at_token r pre (le_bytes cnt x) post ->
  parseNum_go cnt c acc r = Ok (acc + x * 2 ^ (c * 8), true, set_offset_raw r (lenN pre + N.of_nat cnt)).
Proof.
  induction cnt as [|cnt IH]; intros c acc x r pre post Hc Hacc Hx T.
  - cbn [parseNum_go le_bytes] in *. change (N.of_nat 0 * 8) with 0 in Hx. change (2 ^ 0) with 1 in Hx.
    assert (x = 0) by lia. subst x. rewrite N.mul_0_l, !N.add_0_r.
    rewrite <- (at_token_nil_offset _ _ _ T). destruct r; reflexivity.
  - rewrite le_bytes_S in T. cbn [parseNum_go].
    destruct (read_token _ _ _ _ _ T) as (R & T1). rewrite R. cbn [bind].
    assert (Hw8 : w8 (c * 8) = c * 8) by (unfold w8, two8; apply N.mod_small; lia). rewrite Hw8.
    set (P := 2 ^ (c * 8)) in *.
    assert (HP : 0 < P) by (unfold P; apply N.neq_0_lt_0, N.pow_nonzero; discriminate).
    assert (Hb : x mod 256 < 256) by (apply N.mod_lt; discriminate).
    assert (Hw64 : w64 (N.shiftl (x mod 256) (c * 8)) = (x mod 256) * P).
    { rewrite N.shiftl_mul_pow2. fold P. unfold w64. apply N.mod_small.
      assert (P <= 2 ^ 56) by (unfold P; apply N.pow_le_mono_r; lia).
      change (2 ^ 56) with 72057594037927936 in H. unfold two64. nia. }
    rewrite Hw64.
    assert (Hlor : N.lor acc ((x mod 256) * P) = acc + (x mod 256) * P).
    { unfold P. rewrite <- (lor_small_shiftl acc (x mod 256) (c * 8) Hacc). rewrite N.shiftl_mul_pow2. reflexivity. }
    rewrite Hlor.
    assert (HP1 : 2 ^ ((c + 1) * 8) = 256 * P).
    { unfold P. replace ((c + 1) * 8) with (8 + c * 8) by lia. rewrite N.pow_add_r. reflexivity. }
    rewrite (IH (c + 1) (acc + x mod 256 * P) (x / 256) _ (pre ++ [x mod 256]) post); auto.
    + rewrite HP1. rewrite set_offset_raw_twice. rewrite lenN_app. change (lenN [x mod 256]) with 1.
      f_equal. f_equal; [f_equal|f_equal; lia].
      pose proof (N.div_mod x 256 ltac:(discriminate)) as DM.
      rewrite DM at 3. ring.
    + lia.
    + rewrite HP1. nia.
    + assert (E : N.of_nat (S cnt) * 8 = 8 + N.of_nat cnt * 8) by lia. rewrite E, N.pow_add_r in Hx.
      change (2 ^ 8) with 256 in Hx.
      apply N.div_lt_upper_bound; [discriminate|exact Hx].
Qed.

Theorem num_roundtrip : forall (n : nat) v r pre post,
  (n <= 8)%nat -> v < 2 ^ (N.of_nat n * 8) -> at_token r pre (le_bytes n v) post ->
  parseNumConstant (N.of_nat n) r = Ok (v, true, set_offset_raw r (lenN pre + N.of_nat n)).
Proof.
  intros n v r pre post Hn Hv T. unfold parseNumConstant. rewrite Nat2N.id.
  rewrite (parseNum_go_roundtrip n 0 0 v r pre post); auto; try lia.
  change (0 * 8) with 0. change (2 ^ 0) with 1. rewrite N.mul_1_r. reflexivity.
Qed.

(** ---- strings ---- *)
Definition ascii_char (c : N) : Prop := 1 <= c <= 127.

Lemma parseString_go_roundtrip str : forall fuel ptr len r pre post,
  (length str < fuel)%nat -> Forall ascii_char str -> at_token r pre (str ++ [0]) post ->
  parseString_go fuel ptr len r = Ok (mkSlice ptr (len + lenN str), true, set_offset_raw r (lenN pre + lenN str + 1)).
Proof.
  induction str as [|ch str IH]; intros fuel ptr len r pre post Hf Ha T; (destruct fuel as [|fuel]; [cbn in Hf; lia|]).
  - cbn [app] in T. cbn [parseString_go].
    destruct (read_token _ _ _ _ _ T) as (R & _). rewrite R. cbn [bind N.eqb].
    change (lenN (@nil N)) with 0. rewrite !N.add_0_r. reflexivity.
  - cbn [app] in T. cbn [parseString_go].
    destruct (read_token _ _ _ _ _ T) as (R & T1). rewrite R. cbn [bind].
    inversion Ha as [|? ? Hc Ha']; subst. unfold ascii_char in Hc.
    assert (E0 : ch =? 0 = false) by (apply N.eqb_neq; lia). rewrite E0.
    assert (E1 : (1 <=? ch) && (ch <=? 127) = true) by (apply andb_true_iff; split; apply N.leb_le; lia). rewrite E1.
    rewrite (IH fuel ptr (len + 1) _ (pre ++ [ch]) post); auto; [|cbn in Hf; lia].
    rewrite set_offset_raw_twice, lenN_app, !lenN_cons. change (lenN (@nil N)) with 0.
    f_equal. f_equal; [f_equal; f_equal; lia|f_equal; lia].
Qed.

Theorem string_roundtrip : forall str r pre post,
  Forall ascii_char str -> at_token r pre (str ++ [0]) post ->
  parseString r = Ok (mkSlice (Some (lenN pre)) (lenN str), true, set_offset_raw r (lenN pre + lenN str + 1)).
Proof.
  intros str r pre post Ha T. unfold parseString.
  assert (HP : dataPtr r = Ok (Some (lenN pre))).
  { destruct T as [D O E W]. destruct W as (W1 & W2 & W3 & W4). unfold dataPtr, eof. rewrite O.
    rewrite lenN_app in E. change (lenN [0]) with 1 in E.
    assert (E1 : r_pkgEnd r <=? lenN pre = false) by (apply N.leb_gt; lia). rewrite E1.
    assert (E2 : lenN pre <? r_len r = true) by (apply N.ltb_lt; lia). rewrite E2. reflexivity. }
  rewrite HP. cbn [bind].
  rewrite (parseString_go_roundtrip str _ _ 0 r pre post); auto.
  unfold stream_fuel. destruct T as [D O E W]. rewrite D. rewrite !app_length. cbn. lia.
Qed.

(** ---- opcodes ---- *)
Definition valid_opcode (op : N) : Prop :=
  op <= 0x1fe /\ exists i, opcodeTableIndex op false = Some i /\ i <> aml_badOpcode.

Lemma prefix_not_opcode : opcodeTableIndex aml_extOpPrefix false = Some aml_badOpcode.
Proof. reflexivity. Qed.

Theorem opcode_roundtrip : forall op r pre post,
  valid_opcode op -> at_token r pre (enc_op op) post ->
  nextOpcode r = Ok (op, true, set_offset_raw r (lenN pre + lenN (enc_op op))).
Proof.
  intros op r pre post (Hle & i & Hi & Hbad) T. unfold nextOpcode, enc_op in *.
  destruct (op <=? 255) eqn:E.
  - apply N.leb_le in E.
    destruct (read_token _ _ _ _ _ T) as (R & _). rewrite R. cbn [bind].
    assert (Hne : op =? aml_extOpPrefix = false).
    { apply N.eqb_neq. intros ->. rewrite prefix_not_opcode in Hi. congruence. }
    rewrite Hne, Hi.
    assert (Eb : i =? aml_badOpcode = false) by (apply N.eqb_neq; exact Hbad). rewrite Eb.
    reflexivity.
  - apply N.leb_gt in E.
    destruct (read_token _ _ _ _ _ T) as (R & T1). rewrite R. cbn [bind].
    change (91 =? aml_extOpPrefix) with true. cbn iota.
    destruct (read_token _ _ _ _ _ T1) as (R1 & _). rewrite R1. cbn [bind].
    assert (Ew : w16 (255 + (op - 255)) = op) by (unfold w16, two16; rewrite N.mod_small; lia).
    rewrite Ew, Hi.
    assert (Eb : i =? aml_badOpcode = false) by (apply N.eqb_neq; exact Hbad). rewrite Eb.
    rewrite set_offset_raw_twice, lenN_app. change (lenN [91]) with 1. change (lenN [91; op - 255]) with 2.
    f_equal. f_equal. f_equal. lia.
Qed.

(** ---- names ---- *)
Definition lead_char (b : N) : Prop := (0x41 <= b <= 0x5a) \/ b = 0x5f.
Definition seg_lead (s : N) : N := N.land (N.shiftr s 24) 0xff.

(** name strings the parser can take back: fewer than 64 segments (the parser computes 4*count in uint8), and a
    name written as a bare NameSeg has to start with a lead character *)
Definition wf_name (n : namestr) : Prop :=
  lenN (n_segs n) < 64 /\
  match n_segs n with
  | [s] => n_multi n = true \/ lead_char (seg_lead s)
  | _ => True
  end.

Definition name_prefix (n : namestr) : list N := (if n_root n then [0x5c] else []) ++ repeat 0x5e (N.to_nat (n_carets n)).
Definition name_body (n : namestr) : list N :=
  match n_segs n with
  | [] => [0x00]
  | segs => (if n_multi n || (2 <? lenN segs) then [0x2f; lenN segs] else if lenN segs =? 2 then [0x2e] else []) ++ flat_map seg_bytes segs
  end.
Lemma enc_name_split n : enc_name n = name_prefix n ++ name_body n.
Proof. unfold enc_name, name_prefix, name_body. rewrite <- app_assoc. reflexivity. Qed.

Lemma name_prefix_chars n : Forall (fun c => c = 0x5c \/ c = 0x5e) (name_prefix n).
Proof.
  unfold name_prefix. apply Forall_app. split.
  - destruct (n_root n); repeat constructor.
  - apply Forall_forall. intros x Hx. apply repeat_spec in Hx. auto.
Qed.

Lemma peek_token r pre b tok post : at_token r pre (b :: tok) post -> peekByte r = Ok (Some b).
Proof.
  intros [D O E W]. rewrite lenN_cons in E. unfold peekByte, eof. rewrite O.
  assert (Hlt : r_pkgEnd r <=? lenN pre = false) by (apply N.leb_gt; lia). rewrite Hlt.
  rewrite D. cbn [app]. rewrite byte_at_app. reflexivity.
Qed.

Lemma skipPrefix_roundtrip pfx : forall fuel r pre b rest post,
  Forall (fun c => c = 0x5c \/ c = 0x5e) pfx -> b <> 0x5c -> b <> 0x5e -> (length pfx < fuel)%nat ->
  at_token r pre (pfx ++ b :: rest) post ->
  skipPrefix_go fuel r = Ok (true, set_offset_raw r (lenN pre + lenN pfx)) /\
  at_token (set_offset_raw r (lenN pre + lenN pfx)) (pre ++ pfx) (b :: rest) post.
Proof.
  induction pfx as [|c pfx IH]; intros fuel r pre b rest post Hp Hb1 Hb2 Hf T; (destruct fuel as [|fuel]; [cbn in Hf; lia|]).
  - cbn [app] in T. cbn [skipPrefix_go]. rewrite (peek_token _ _ _ _ _ T). cbn [bind].
    assert (E : (b =? 92) || (b =? 94) = false).
    { apply orb_false_iff. split; apply N.eqb_neq; assumption. }
    rewrite E. change (lenN (@nil N)) with 0. rewrite N.add_0_r, app_nil_r.
    assert (ER : set_offset_raw r (lenN pre) = r) by (destruct T as [D O _ _]; rewrite <- O; destruct r; reflexivity).
    rewrite ER. split; [reflexivity|exact T].
  - cbn [app] in T. cbn [skipPrefix_go]. rewrite (peek_token _ _ _ _ _ T). cbn [bind].
    inversion Hp as [|? ? Hc Hp']; subst.
    assert (E : (c =? 92) || (c =? 94) = true).
    { apply orb_true_iff. destruct Hc as [->| ->]; [left|right]; reflexivity. }
    rewrite E.
    destruct (read_token _ _ _ _ _ T) as (R & T1). rewrite R. cbn [bind].
    destruct (IH fuel _ (pre ++ [c]) b rest post Hp' Hb1 Hb2 ltac:(cbn in Hf; lia) T1) as (SK & T2).
    rewrite SK. rewrite set_offset_raw_twice in *. rewrite lenN_app in *. change (lenN [c]) with 1 in *.
    rewrite lenN_cons.
    replace (lenN pre + (1 + lenN pfx)) with (lenN pre + 1 + lenN pfx) by lia.
    split; [reflexivity|]. rewrite <- app_assoc in T2. exact T2.
Qed.

Lemma lenN_seg_bytes s : lenN (seg_bytes s) = 4. Proof. reflexivity. Qed.
Lemma lenN_flat_seg segs : lenN (flat_map seg_bytes segs) = lenN segs * 4.
Proof.
  induction segs as [|s segs IH]; [reflexivity|].
  cbn [flat_map]. rewrite lenN_app, lenN_seg_bytes, IH, lenN_cons. lia.
Qed.

(** the length of the []byte the parser returns: the encoding without a NullName terminator *)
Definition name_slice_len (n : namestr) : N :=
  match n_segs n with [] => lenN (enc_name n) - 1 | _ => lenN (enc_name n) end.

Lemma at_token_facts r pre tok post : at_token r pre tok post ->
  r_offset r = lenN pre /\ lenN pre + lenN tok <= r_pkgEnd r /\ r_pkgEnd r <= r_len r /\ r_len r < two32.
Proof. intros [D O E (W1 & W2 & W3 & W4)]. auto. Qed.

Lemma set_offset_raw_fields r o : r_offset (set_offset_raw r o) = o /\ r_pkgEnd (set_offset_raw r o) = r_pkgEnd r /\
  r_len (set_offset_raw r o) = r_len r.
Proof. repeat split. Qed.

Lemma setOffset_small r o : o <= r_len r -> setOffset r o = set_offset_raw r o.
Proof. intros H. unfold setOffset. destruct (r_len r <? o) eqn:E; auto. apply N.ltb_lt in E. lia. Qed.

Lemma name_body_cases n :
  (n_segs n = [] /\ name_body n = [0]) \/
  (exists s, n_segs n = [s] /\ n_multi n = false /\ name_body n = seg_bytes s) \/
  (exists s1 s2, n_segs n = [s1; s2] /\ n_multi n = false /\ name_body n = 0x2e :: seg_bytes s1 ++ seg_bytes s2) \/
  (n_segs n <> [] /\ name_body n = 0x2f :: lenN (n_segs n) :: flat_map seg_bytes (n_segs n) /\
   (n_multi n = true \/ 2 < lenN (n_segs n))).
Proof.
  unfold name_body. destruct (n_segs n) as [|s1 [|s2 [|s3 rest]]].
  - left. auto.
  - destruct (n_multi n) eqn:Em.
    + right; right; right. split; [discriminate|]. split; [reflexivity|auto].
    + right; left. exists s1. cbn [flat_map]. rewrite app_nil_r. auto.
  - destruct (n_multi n) eqn:Em.
    + right; right; right. split; [discriminate|]. split; [reflexivity|auto].
    + right; right; left. exists s1, s2. cbn [flat_map]. rewrite app_nil_r. auto.
  - right; right; right. split; [discriminate|]. split.
    + assert (E : n_multi n || (2 <? lenN (s1 :: s2 :: s3 :: rest)) = true).
      { apply orb_true_iff. right. apply N.ltb_lt. rewrite !lenN_cons. lia. }
      rewrite E. reflexivity.
    + right. rewrite !lenN_cons. lia.
Qed.

Lemma w32_id x : x < two32 -> w32 x = x. Proof. apply w32_small. Qed.

Theorem name_roundtrip : forall n r pre post,
  wf_name n -> at_token r pre (enc_name n) post ->
  parseNameString r = Ok (mkSlice (Some (lenN pre)) (name_slice_len n), true, set_offset_raw r (lenN pre + lenN (enc_name n))).
Proof.
  intros n r pre post (Hcnt & Hlead) T.
  destruct (at_token_facts _ _ _ _ T) as (O & E & Wb & Wc).
  unfold name_slice_len. rewrite enc_name_split in *. rewrite lenN_app in *.
  assert (Hf : (length (name_prefix n) < stream_fuel r)%nat).
  { unfold stream_fuel. destruct T as [D _ _ _]. rewrite D, !app_length. lia. }
  pose proof (name_prefix_chars n) as Hpc.
  set (pfx := name_prefix n) in *.
  set (q := lenN pre + lenN pfx).
  assert (HP : forall body : list N, 1 <= lenN body -> lenN pre + (lenN pfx + lenN body) <= r_pkgEnd r -> dataPtr r = Ok (Some (lenN pre))).
  { intros body H1 H2. unfold dataPtr, eof. rewrite O.
    assert (E1 : r_pkgEnd r <=? lenN pre = false) by (apply N.leb_gt; lia). rewrite E1.
    assert (E2 : lenN pre <? r_len r = true) by (apply N.ltb_lt; lia). rewrite E2. reflexivity. }
  unfold parseNameString.
  destruct (name_body_cases n) as [(Es & Eb)|[(s & Es & Em & Eb)|[(s1 & s2 & Es & Em & Eb)|(Hne & Eb & Hm)]]];
    rewrite Eb in *; rewrite Es in * || idtac.
  - (* NullName *)
    rewrite (HP [0]) by (change (lenN [0]) with 1 in *; lia). cbn [bind]. rewrite O.
    destruct (skipPrefix_roundtrip pfx _ _ _ 0 [] post Hpc ltac:(discriminate) ltac:(discriminate) Hf T) as (SK & T1).
    rewrite SK. cbn [bind negb].
    destruct (read_token _ _ _ _ _ T1) as (R & _). rewrite R. cbn [bind]. rewrite set_offset_raw_twice.
    rewrite lenN_app. fold q. change (0 =? 0) with true. cbn iota.
    cbn [r_offset set_offset_raw]. change (lenN [0]) with 1 in *.
    f_equal. f_equal; [f_equal; f_equal; unfold w32, two32, q in *; lia|f_equal; unfold q; lia].
  - (* NameSeg *)
    assert (Hs4 : exists b0 b1 b2 b3, seg_bytes s = [b0; b1; b2; b3] /\ b0 = seg_lead s) by (unfold seg_bytes, seg_lead; eauto 10).
    destruct Hs4 as (b0 & b1 & b2 & b3 & E4 & Eb0). rewrite E4 in *.
    destruct Hlead as [Hm|Hl]; [congruence|]. unfold lead_char in Hl. rewrite <- Eb0 in Hl.
    change (lenN [b0; b1; b2; b3]) with 4 in *.
    rewrite (HP [b0; b1; b2; b3]) by (change (lenN [b0; b1; b2; b3]) with 4; clear -E; lia). cbn [bind]. rewrite O.
    destruct (skipPrefix_roundtrip pfx _ _ _ b0 [b1; b2; b3] post Hpc ltac:(clear -Hl; lia) ltac:(clear -Hl; lia) Hf T) as (SK & T1).
    rewrite SK. cbn [bind negb].
    destruct (read_token _ _ _ _ _ T1) as (R & _). rewrite R. cbn [bind]. rewrite set_offset_raw_twice.
    rewrite lenN_app. fold q.
    assert (N0 : b0 =? 0 = false) by (apply N.eqb_neq; clear -Hl; lia). rewrite N0.
    assert (N1 : b0 =? 46 = false) by (apply N.eqb_neq; clear -Hl; lia). rewrite N1.
    assert (N2 : b0 =? 47 = false) by (apply N.eqb_neq; clear -Hl; lia). rewrite N2.
    assert (N3 : ((b0 <? 65) || (90 <? b0)) && negb (b0 =? 95) = false).
    { destruct Hl as [Hl| ->]; [|reflexivity].
      assert (H1 : b0 <? 65 = false) by (apply N.ltb_ge; clear -Hl; lia). assert (H2 : 90 <? b0 = false) by (apply N.ltb_ge; clear -Hl; lia).
      rewrite H1, H2. reflexivity. }
    rewrite N3. cbn [r_offset r_pkgEnd set_offset_raw].
    change (w32 (aml_amlNameLen - 1)) with 3.
    rewrite w32_id by (unfold two32 in *; unfold q; clear -Wc Wb E; lia).
    assert (Hok : r_pkgEnd r <? q + 1 + 3 = false) by (apply N.ltb_ge; unfold q; clear -E; lia). rewrite Hok.
    rewrite setOffset_small by (cbn [r_len set_offset_raw]; unfold q; clear -Wb E; lia).
    rewrite set_offset_raw_twice. cbn [r_offset set_offset_raw].
    f_equal. f_equal; [f_equal; f_equal; unfold w32, two32, q in *; clear -Wc Wb E; lia|f_equal; unfold q; clear; lia].
  - (* DualNamePath *)
    assert (H8 : lenN (seg_bytes s1 ++ seg_bytes s2) = 8) by reflexivity.
    rewrite lenN_cons, H8 in *.
    rewrite (HP (46 :: seg_bytes s1 ++ seg_bytes s2)) by (rewrite lenN_cons, H8; lia). cbn [bind]. rewrite O.
    destruct (skipPrefix_roundtrip pfx _ _ _ 46 _ post Hpc ltac:(discriminate) ltac:(discriminate) Hf T) as (SK & T1).
    rewrite SK. cbn [bind negb].
    destruct (read_token _ _ _ _ _ T1) as (R & _). rewrite R. cbn [bind]. rewrite set_offset_raw_twice.
    rewrite lenN_app. fold q. change (46 =? 0) with false. change (46 =? 46) with true. cbn iota.
    cbn [r_offset r_pkgEnd set_offset_raw].
    change (w32 (aml_amlNameLen * 2)) with 8.
    rewrite w32_id by (unfold two32 in *; unfold q; clear -Wc Wb E; lia).
    assert (Hok : r_pkgEnd r <? q + 1 + 8 = false) by (apply N.ltb_ge; unfold q; clear -E; lia). rewrite Hok.
    rewrite setOffset_small by (cbn [r_len set_offset_raw]; unfold q; clear -Wb E; lia).
    rewrite set_offset_raw_twice. cbn [r_offset set_offset_raw].
    f_equal. f_equal; [f_equal; f_equal; unfold w32, two32, q in *; clear -Wc Wb E; lia|f_equal; unfold q; clear; lia].
  - (* MultiNamePath *)
    set (cnt := lenN (n_segs n)) in *.
    assert (Hcnt1 : 1 <= cnt).
    { unfold cnt. destruct (n_segs n); [congruence|]. rewrite lenN_cons. lia. }
    assert (HL : lenN (47 :: cnt :: flat_map seg_bytes (n_segs n)) = 2 + cnt * 4).
    { rewrite !lenN_cons, lenN_flat_seg. fold cnt. lia. }
    rewrite HL in *.
    assert (Hnz : match n_segs n with [] => lenN pfx + (2 + cnt * 4) - 1 | _ => lenN pfx + (2 + cnt * 4) end = lenN pfx + (2 + cnt * 4)).
    { destruct (n_segs n); [congruence|reflexivity]. }
    rewrite (HP (47 :: cnt :: flat_map seg_bytes (n_segs n))) by (rewrite HL; lia). cbn [bind]. rewrite O.
    destruct (skipPrefix_roundtrip pfx _ _ _ 47 _ post Hpc ltac:(discriminate) ltac:(discriminate) Hf T) as (SK & T1).
    rewrite SK. cbn [bind negb].
    destruct (read_token _ _ _ _ _ T1) as (R & T2). destruct (read_token _ _ _ _ _ T2) as (R2 & _).
    rewrite R. cbn [bind]. change (47 =? 0) with false. change (47 =? 46) with false. change (47 =? 47) with true. cbn iota.
    rewrite R2. cbn [bind]. rewrite !set_offset_raw_twice.
    rewrite !lenN_app. change (lenN [47]) with 1. fold q.
    assert (Hc0 : cnt =? 0 = false) by (apply N.eqb_neq; clear -Hcnt1; lia). rewrite Hc0.
    cbn [r_offset r_pkgEnd set_offset_raw].
    assert (Hw8 : w8 (cnt * aml_amlNameLen) = cnt * 4).
    { unfold w8, two8, aml_amlNameLen. apply N.mod_small. clear -Hcnt; lia. }
    rewrite Hw8.
    rewrite w32_id by (unfold two32 in *; unfold q; clear -Wc Wb E; lia).
    assert (Hok : r_pkgEnd r <? q + 1 + 1 + cnt * 4 = false) by (apply N.ltb_ge; unfold q; clear -E; lia). rewrite Hok.
    rewrite setOffset_small by (cbn [r_len set_offset_raw]; unfold q; clear -Wb E; lia).
    rewrite set_offset_raw_twice. cbn [r_offset set_offset_raw].
    f_equal. f_equal; [f_equal; f_equal; rewrite Hnz; unfold w32, two32, q in *; clear -Wc Wb E; lia|f_equal; unfold q; clear; lia].
Qed.
