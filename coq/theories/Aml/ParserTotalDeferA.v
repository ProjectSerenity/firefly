(** parseDeferredBlocks: the step of parseArg, one lemma per kind of argument (simple data, PkgLen, byte
    list, field list, strict term argument, target, term list). *)
From Coq Require Import NArith Arith List Bool Lia.
From Coq Require Import ZifyBool ZifyN ZifyNat.
From FF Require Import Lib.Word Gen.Consts_device_acpi_aml Gen.Consts_aml_tree Aml.Stream Aml.Lex Aml.LexProofs
  Aml.Tree Aml.Parser Aml.ParserProofs Aml.TreeSpec Aml.TreeProofs Aml.TreeProofsOps Aml.TreeProofsFind Aml.TreeProofsAnc
  Aml.ParserTotalTree Aml.ParserTotalTree2 Aml.ParserTotalLex Aml.ParserTotalTable Aml.ParserTotalBase Aml.ParserTotalLeaf
  Aml.ParserTotalFrame Aml.ParserTotalLeaf2 Aml.ParserTotalFirst Aml.ParserTotalConn Aml.ParserTotalReloc Aml.ParserTotalDefer Aml.ParserTotalFirst2
  Aml.ParserTotalDeferS.
Import ListNotations.
Local Open Scope N_scope.

Section StepA.
Variable tbls : list (list N).
Notation IV := (Inv tbls).

(** the Methods that were there stay typed across a call that creates none *)
Lemma TM_leaf (X P XX E : N -> Prop) s g s' g' :
  gwf g -> R (p_tree s) g -> TM X s g -> Fr P XX E s g s' g' ->
  (forall i o, P i -> tget (p_tree s) i = Some o -> ~ nodefer o) ->
  Eok E s g g' ->
  (forall i, XX i -> notnp s i) -> (forall y, E y -> kids g y <> []) ->
  (forall i o, tget (p_tree s') i = Some o -> o_opcode o = aml_pOpMethod ->
     exists o0, tget (p_tree s) i = Some o0 /\ o_opcode o0 = aml_pOpMethod) ->
  TM X s' g'.
Proof.
  intros Hwf HR H F HP HE HXn HEk Hnm.
  eapply (TM_frame2 X X P XX E s g s' g' Hwf HR H F HP HE HXn HEk); [auto|].
  intros m mo Hm Hop Hnl. exfalso. destruct (Hnm m mo Hm Hop) as (o0 & Ho0 & Hop0). apply Hnl.
  apply (R_live_glive _ _ HR). exists o0. split; [exact Ho0|rewrite Hop0; discriminate].
Qed.

(** the postcondition of parseArg (D_arg) *)
Definition ArgPost (curObj argTy : N) (s : pstate) (g : ghost) (ar : option N * pres) (s' : pstate) : Prop :=
  let '(a, res) := ar in exists g',
    FD s' g' /\ ExtD s g s' g' /\
    Fr NoP (eq curObj) (fun y => argTy = aml_pArgTypeFieldList /\ In curObj (kids g y)) s g s' g' /\
    (okres res -> argTy <> aml_pArgTypeFieldList -> kids g' curObj = kids g curObj) /\
    (argTy = aml_pArgTypeFieldList -> finsert s' g g' curObj) /\
    fresh_root g g' a /\ Psi s' <= Psi s + 2 /\
    (okres res -> Psi s' <= Psi s + ucost argTy /\ p_scopeStack s' = p_scopeStack s /\
                  TM (fun m => m = curObj /\ nolook argTy = true) s' g') /\
    (res = RShort -> argTy = aml_pArgTypeFieldList) /\
    (res = ROk -> argTy = aml_pArgTypeByteData ->
       exists obj po v, a = Some obj /\ tget (p_tree s') obj = Some po /\ o_value po = Some (VNum v) /\ nodefer po /\
                        o_opcode po = aml_pOpBytePrefix /\ o_infoIndex po = bpIdx) /\
    (res = ROk -> argTy = aml_pArgTypeNameString ->
       exists obj po, a = Some obj /\ tget (p_tree s') obj = Some po /\ nodefer po /\
                      o_opcode po = aml_pOpIntNamePath /\ o_infoIndex po = npIdx /\ kids g' obj = []) /\
    (res = ROk -> argTy = aml_pArgTypePkgLen -> a = None) /\
    (res = ROk -> argTy <> aml_pArgTypeFieldList).

Lemma nodefer_idx (o : Obj) idx op fl af : o_infoIndex o = idx -> opInfo idx = Some (op, fl, af) ->
  hasFlag fl aml_pOpFlagDeferParsing = false -> no_fieldlist af = true -> nodefer o.
Proof.
  intros E Hr Hf Hn op' fl' af' Hr'. rewrite E, Hr in Hr'. inversion Hr'; subst. split; [exact Hf|apply no_fieldlist_sound; exact Hn].
Qed.

Lemma namepath_row : exists i fl af, opcodeTableIndex aml_pOpIntNamePath true = Some i /\ opInfo i = Some (aml_pOpIntNamePath, fl, af) /\
  hasFlag fl aml_pOpFlagDeferParsing = false /\ no_fieldlist af = true.
Proof. vm_compute. do 3 eexists. repeat split; reflexivity. Qed.

Definition simple_arg (argTy : N) : bool :=
  (argTy =? aml_pArgTypeByteData) || (argTy =? aml_pArgTypeWordData) || (argTy =? aml_pArgTypeDwordData) ||
  (argTy =? aml_pArgTypeQwordData) || (argTy =? aml_pArgTypeString) || (argTy =? aml_pArgTypeNameString).

Lemma arg_simple curObj argTy s g :
  FD s g -> IV s -> glive g curObj -> roomD 0 s -> simple_arg argTy = true ->
  TM (fun m => m = curObj /\ nolook argTy = true) s g ->
  wp True (parseSimpleArg argTy) s (ArgPost curObj argTy s g).
Proof.
  intros H I0 Hl Hroom Hty HTM. pose proof (fi_R _ _ H) as HR. pose proof (R_gwf _ _ HR) as Hwf.
  pose proof (roomD_lp _ _ Hroom) as Hlp.
  eapply wp_weaken; [apply (wp_and_pc True _ s _ (fun ar s' => parseSimpleArg argTy s = Ok (ar, s'))
                             (parseSimpleArg_spec2 True argTy s g H ltac:(lia)))| |].
  { intros a s' E. exact E. }
  { auto. }
  intros [a res] s' ((g' & H' & X' & L1 & L2 & L3 & L4 & L5 & Lrs) & Erun). unfold ArgPost. exists g'.
  assert (Hnm := parseSimpleArg_nmeth argTy s (a, res) s' Erun).
  assert (Hnfl : argTy <> aml_pArgTypeFieldList).
  { intros ->. vm_compute in Hty. discriminate. }
  assert (Hrem : rem s' <= rem s) by (unfold rem; pose proof (ex_len _ _ _ _ X'); pose proof (ex_off _ _ _ _ X'); lia).
  assert (HPsi : Psi s' <= Psi s + 1) by (unfold Psi; lia).
  assert (Hkc : kids g' curObj = kids g curObj).
  { destruct (fr_kids _ _ _ _ _ _ _ L5 curObj Hl) as (_ & Hex); [intros []|]. apply Hex. intros []. }
  split; [exact H'|]. split; [apply Ext_ExtD; exact X'|].
  split; [eapply Fr_weaken; [| | |exact L5]; auto; intros y _ []|].
  split; [intros _ _; exact Hkc|]. split; [intros E; contradiction|].
  split; [destruct a as [obj|]; [destruct L4 as (A & B & C & _); cbn [fresh_root]; auto|exact I]|].
  split; [lia|].
  split.
  { intros Hok. assert (Hu : ucost argTy = 0).
    { unfold ucost, unpaid. unfold simple_arg in Hty.
      destruct (N.eqb_spec argTy aml_pArgTypeTermList) as [->|_]; [vm_compute in Hty; discriminate|].
      destruct (N.eqb_spec argTy aml_pArgTypeByteList) as [->|_]; [vm_compute in Hty; discriminate|]. reflexivity. }
    rewrite Hu. split.
    - destruct Hok as [->| ->].
      + specialize (L3 eq_refl). unfold Psi, rem in *. pose proof (ex_len _ _ _ _ X'). pose proof (fi_rok _ _ H') as (_ & _ & O'). lia.
      + exfalso. apply Lrs. reflexivity.
    - split; [exact L2|].
      eapply (TM_leaf _ NoP NoP NoP s g s' g' Hwf HR HTM L5); try (intros; contradiction); try apply Eok_NoP. exact Hnm. }
  split.
  { intros ->. exfalso. apply Lrs. reflexivity. }
  split.
  { intros Hr Eb. destruct a as [obj|]; [|destruct L4 as (F & _); rewrite Hr in F; discriminate].
    destruct L4 as (_ & _ & _ & D1 & _). destruct (D1 Eb) as (po & v & idx & Hpo & Hv & Hidx & Hii).
    exists obj, po, v. split; [reflexivity|]. split; [exact Hpo|]. split; [exact Hv|].
    destruct (parseSimpleArg_obj argTy s obj res s' Erun) as (po' & Hpo' & _ & _ & K1 & _). assert (po' = po) by congruence. subst po'.
    split; [|split; [apply (K1 Eb)|unfold bpIdx; rewrite Hidx; exact Hii]].
    destruct byteprefix_row as (i & fl & af & Ei & Er & Ef & En0). rewrite Ei in Hidx. injection Hidx as Hidx'.
    eapply (nodefer_idx po i); [congruence|exact Er|exact Ef|exact En0]. }
  split.
  { intros Hr En. destruct a as [obj|]; [|destruct L4 as (F & _); rewrite Hr in F; discriminate].
    destruct L4 as (_ & Hlo & _ & _ & D2). destruct (D2 En) as (po & idx & Hpo & Hidx & Hii).
    exists obj, po. split; [reflexivity|]. split; [exact Hpo|].
    destruct (parseSimpleArg_obj argTy s obj res s' Erun) as (po' & Hpo' & Hfirst & _ & _ & K2). assert (po' = po) by congruence. subst po'.
    split; [|split; [apply (K2 En)|split; [unfold npIdx; rewrite Hidx; exact Hii|]]].
    - destruct namepath_row as (i & fl & af & Ei & Er & Ef & En0). rewrite Ei in Hidx. injection Hidx as Hidx'.
      eapply (nodefer_idx po i); [congruence|exact Er|exact Ef|exact En0].
    - pose proof (fi_R _ _ H') as HR'. destruct (FI_live_get _ _ _ H' Hlo) as (o & Ho & Hlo'). assert (o = po) by congruence. subst o.
      destruct (R_kids _ _ HR' _ _ Hpo Hlo') as (Hf1 & _). destruct (kids g' obj) as [|c l] eqn:Ek; [reflexivity|exfalso].
      cbn [hd] in Hf1. assert (Hin : In c (kids g' obj)) by (rewrite Ek; left; reflexivity).
      destruct ((R_gwf _ _ HR') _ _ Hin) as (_ & Hlc). destruct (FI_live_get _ _ _ H' Hlc) as (co & Hco & _).
      apply (R_pos_not_Inv _ _ HR' _ _ Hco). congruence. }
  split; [intros _ ->; vm_compute in Hty; discriminate|intros _; exact Hnfl].
Qed.

(** a result that leaves the pool alone *)
Lemma ArgPost_pure curObj argTy s g res s' :
  FD s g -> FD s' g -> p_tree s' = p_tree s -> p_scopeStack s' = p_scopeStack s ->
  r_len (p_r s') = r_len (p_r s) -> r_offset (p_r s) <= r_offset (p_r s') ->
  argTy <> aml_pArgTypeFieldList -> argTy <> aml_pArgTypeByteData -> argTy <> aml_pArgTypeNameString ->
  res <> RShort -> (res = ROk -> Psi s' <= Psi s + ucost argTy) ->
  TM (fun m => m = curObj /\ nolook argTy = true) s g ->
  ArgPost curObj argTy s g (None, res) s'.
Proof.
  intros H H' Et Es El Eo N1 N2 N3 Hrs HPs HTM. unfold ArgPost. exists g.
  assert (HPsi : Psi s' <= Psi s) by (unfold Psi, lp, rem; rewrite Et, El; lia).
  split; [exact H'|]. split; [constructor; [apply gext_refl|exact El|exact Eo|exists []; exact Es]|].
  split; [eapply Fr_tree_eq; [apply Fr_refl|exact Et]|].
  split; [auto|]. split; [intros E; contradiction|]. split; [exact I|]. split; [lia|].
  split.
  { intros [Hr|Hr]; [|contradiction]. split; [exact (HPs Hr)|]. split; [exact Es|eapply TM_tree_eq; eauto]. }
  split; [intros E; contradiction|]. split; [intros _ E; contradiction|]. split; [intros _ E; contradiction|]. split; [auto|intros _; exact N1].
Qed.

Lemma arg_pkglen curObj fl s g :
  FD s g -> IV s -> TM (fun m => m = curObj /\ nolook aml_pArgTypePkgLen = true) s g ->
  wp True (mlet origOffset <~ offsetM ;;
           mlet '(pkgLen, ok) <~ lex parsePkgLength ;;
           if negb ok then ret (None, RFailed) else
           mlet allBlocks <~ Parser.get p_allBlocks ;;
           if negb allBlocks && hasFlag fl aml_pOpFlagDeferParsing then
             wrf curObj (set_pkgEnd (w32 (origOffset + pkgLen))) ;;;
             setOffsetM (w32 (origOffset + pkgLen)) ;;;
             ret (None, RShort)
           else
             mlet ok2 <~ pushPkgEnd (w32 (origOffset + pkgLen)) ;;
             ret (None, pres_of_bool ok2)) s (ArgPost curObj aml_pArgTypePkgLen s g).
Proof.
  intros H I0 HTM. pose proof (fi_rok _ _ H) as Hrok.
  apply wp_bind, wp_get.
  apply wp_bind. apply wp_pkglen; auto. intros pkgLen ok r1 Hadv Hok Hnok.
  assert (H1 : FD (with_r s r1) g) by (apply FI_adv; auto).
  destruct Hadv as ((Ed & El & Ep) & Ho & Ho').
  destruct ok; cbn [negb].
  2:{ apply wp_ret. apply (ArgPost_pure curObj _ s g RFailed (with_r s r1) H H1); try reflexivity; try discriminate; auto. }
  destruct (Hok eq_refl) as (Hlt1 & _).
  apply wp_bind, wp_get. rewrite (fi_skip _ _ H1). cbn [negb andb].
  apply wp_bind. apply wp_pushPkgEnd. apply wp_ret.
  set (e := w32 (r_offset (p_r s) + pkgLen)).
  set (s2 := with_r (with_pkgEndStack (with_r s r1) (e :: p_pkgEndStack (with_r s r1))) (fst (setPkgEnd (p_r (with_r s r1)) e))).
  assert (H2 : FD s2 g).
  { apply FI_with_r; [apply FI_with_pkgEnd; exact H1|]. apply rok_setPkgEnd. apply (fi_rok _ _ H1). }
  destruct (setPkgEnd_off (p_r (with_r s r1)) e) as (Eo2 & El2).
  apply (ArgPost_pure curObj _ s g _ s2 H H2); try reflexivity; try discriminate; auto.
  - unfold s2. pcbn. pcbn_in El2. rewrite El2. exact El.
  - unfold s2. pcbn. pcbn_in Eo2. rewrite Eo2. exact Ho.
  - destruct (snd (setPkgEnd (p_r (with_r s r1)) e)); discriminate.
  - intros _. change (ucost aml_pArgTypePkgLen) with 0. unfold Psi, lp, rem, s2. pcbn. pcbn_in Eo2. pcbn_in El2. rewrite Eo2, El2, El. lia.
Qed.

Definition m_bytelist : M (option N * pres) :=
  mlet argObj <~ newObj aml_pOpIntByteList ;;
  mlet r <~ Parser.get p_r ;;
  mlet res <~ parseByteList argObj (w32 (r_pkgEnd r + two32 - r_offset r)) ;;
  if pres_eqb res ROk then ret (Some argObj, ROk) else ret (None, RFailed).

Lemma m_bytelist_nmeth : nmeth m_bytelist.
Proof. unfold m_bytelist. nmeth_tac; try apply parseByteList_nmeth. Qed.

Lemma arg_bytelist curObj s g :
  FD s g -> IV s -> glive g curObj -> roomD 1 s ->
  TM (fun m => m = curObj /\ nolook aml_pArgTypeByteList = true) s g -> notnp s curObj ->
  wp True m_bytelist s (ArgPost curObj aml_pArgTypeByteList s g).
Proof.
  intros H I0 Hl Hroom HTM Hnnp. pose proof (fi_R _ _ H) as HR. pose proof (R_gwf _ _ HR) as Hwf.
  pose proof (roomD_lp _ _ Hroom) as Hlp.
  apply wp_run2. unfold m_bytelist.
  apply wp_bind. eapply new_step2; [exact H|apply (newokb_sound aml_pOpIntByteList eq_refl)|lia|].
  intros p t2 g2 po H2 Hext2 Hfresh2 Hlive2 Hroot2 Hkids2 Hpo Hpop _ _ Hl2 Hfw2 Hks2 Hlv2.
  set (s2 := with_tree s t2) in *.
  assert (F2 : Fr NoP (eq curObj) NoP s g s2 g2) by (apply (Fr_new NoP (eq curObj) NoP s g s g t2 g2 p (Fr_refl _ _ _ s g) (fun x Hx => Hx) Hfresh2 Hfw2 Hks2)).
  apply wp_bind, wp_get.
  apply wp_bind. eapply wp_weaken; [apply (parseByteList_spec2 True p _ s2 g2 H2 Hlive2)|auto|].
  intros res s3 (H3 & (C1 & C2 & C3 & C4 & C5) & T3).
  assert (F3 : Fr NoP (eq curObj) NoP s g s3 g2).
  { eapply Fr_gets; [exact F2|]. intros i Hi. apply T3. intros ->. contradiction. }
  assert (HPsi : Psi s3 <= Psi s + 1).
  { unfold Psi, rem. unfold lp in *. unfold s2 in *. pcbn_in C1. pcbn_in C2. pcbn_in C4. lia. }
  assert (HX : ExtD s g s3 g2).
  { constructor; [exact Hext2|exact C1|exact C2|exists []; exact C3]. }
  assert (Hkc : kids g2 curObj = kids g curObj) by apply Hks2.
  assert (Hfin : forall a res', (a = Some p \/ a = None) -> (res' = ROk \/ res' = RFailed) ->
     m_bytelist s = Ok ((a, res'), s3) -> ArgPost curObj aml_pArgTypeByteList s g (a, res') s3).
  { intros a res' Ha Hr Erun. unfold ArgPost. exists g2.
    split; [exact H3|]. split; [exact HX|].
    split; [eapply Fr_weaken; [| | |exact F3]; auto; intros y _ []|].
    split; [intros _ _; exact Hkc|]. split; [intros E; discriminate|].
    split; [destruct Ha as [->| ->]; [cbn [fresh_root]; auto|exact I]|].
    split; [lia|]. split.
    { intros _. split; [change (ucost aml_pArgTypeByteList) with 1; lia|]. split; [exact C3|].
      eapply (TM_leaf _ NoP (eq curObj) NoP s g s3 g2 Hwf HR HTM F3); try (intros; contradiction); try apply Eok_NoP;
        [intros i <-; exact Hnnp|exact (m_bytelist_nmeth s _ s3 Erun)]. }
    split; [intros E; destruct Hr as [->| ->]; discriminate|].
    split; [intros _ E; discriminate|]. split; [intros _ E; discriminate|]. split; [intros _ E; discriminate|intros _ E; discriminate]. }
  destruct (pres_eqb res ROk); apply wp_ret; intros Erun; apply Hfin; auto.
Qed.

Lemma nodup_split_unique (x : N) l1 t1 l2 t2 : NoDup (l1 ++ x :: t1) -> l1 ++ x :: t1 = l2 ++ x :: t2 -> l1 = l2 /\ t1 = t2.
Proof.
  revert l2. induction l1 as [|y l1 IH]; intros l2 Hnd E.
  - destruct l2 as [|z l2]; cbn [app] in E.
    + injection E as E1. auto.
    + injection E as E1 E2. subst z. exfalso. cbn [app] in Hnd. apply NoDup_cons_iff in Hnd. destruct Hnd as (Hni & _).
      apply Hni. rewrite E2. apply in_or_app. right. left. reflexivity.
  - destruct l2 as [|z l2]; cbn [app] in E.
    + injection E as E1 E2. subst y. exfalso. cbn [app] in Hnd. apply NoDup_cons_iff in Hnd. destruct Hnd as (Hni & _).
      apply Hni. apply in_or_app. right. left. reflexivity.
    + injection E as E1 E2. subst z. cbn [app] in Hnd. apply NoDup_cons_iff in Hnd. destruct Hnd as (_ & Hnd').
      destruct (IH l2 Hnd' E2) as (-> & ->). auto.
Qed.

Lemma prefix2 (c a0 a1 : N) l1 tl rest : l1 ++ c :: tl = a0 :: a1 :: rest -> c <> a0 -> c <> a1 -> exists l1', l1 = a0 :: a1 :: l1'.
Proof.
  intros E N0 N1. destruct l1 as [|x [|y l1']]; cbn [app] in E; inversion E; subst; try contradiction. eauto.
Qed.

Lemma arg_fieldlist curObj s g :
  FD s g -> IV s -> glive g curObj -> roomD 0 s ->
  has_parent g curObj -> LastNum s curObj -> hasfl s curObj ->
  TM (fun m => m = curObj /\ nolook aml_pArgTypeFieldList = true) s g -> notnp s curObj ->
  wp True (mlet res <~ parseFieldElements curObj ;; ret (None, res)) s (ArgPost curObj aml_pArgTypeFieldList s g).
Proof.
  intros H I0 Hl Hroom (par & Hin) HLN Hfl HTM Hnnp. pose proof (fi_R _ _ H) as HR. pose proof (R_gwf _ _ HR) as Hwf.
  destruct (in_split _ _ Hin) as (l1 & tl & Ek).
  apply wp_run2.
  apply wp_bind. eapply wp_weaken; [apply (parseFieldElements_spec2 curObj par l1 tl s g H Ek)| |].
  { unfold roomD, Psi, Phi in *. lia. }
  { exact HLN. }
  { intros []. }
  intros res s' (g' & H' & X' & (Q1 & Q2 & Q3 & Q4 & Q5) & Fr' & (new & Hnew & Hsibs)).
  apply wp_ret. intros Erun. unfold ArgPost. exists g'.
  assert (Hnm : forall i o, tget (p_tree s') i = Some o -> o_opcode o = aml_pOpMethod ->
                 exists o0, tget (p_tree s) i = Some o0 /\ o_opcode o0 = aml_pOpMethod).
  { apply bindM_ok in Erun. destruct Erun as (r0 & s0 & E0 & E1). inversion E1; subst r0 s0.
    exact (parseFieldElements_nmeth curObj s _ s' E0). }
  assert (Hlpar : glive g par) by (apply (Hwf par curObj Hin)).
  destruct (R_live_glive _ _ HR par) as (_ & Hlv). destruct (Hlv Hlpar) as (po & Hpo & Hlpo).
  destruct (R_kids _ _ HR _ _ Hpo Hlpo) as (_ & _ & _ & Hnd).
  assert (Hfin : finsert s' g g' curObj).
  { intros par' l1' tl' Ek'. assert (par' = par).
    { eapply (R_parent_unique _ _ HR); [|exact Hin]. rewrite Ek'. apply in_or_app. right. left. reflexivity. }
    subst par'. rewrite Ek in Ek'. rewrite Ek in Hnd. destruct (nodup_split_unique _ _ _ _ _ Hnd Ek') as (-> & ->).
    exists new. split; [exact Hnew|exact Hsibs]. }
  assert (Hrem : rem s' <= rem s) by (unfold rem; pose proof (ex_len _ _ _ _ X'); pose proof (ex_off _ _ _ _ X'); lia).
  split; [exact H'|]. split; [apply Ext_ExtD; exact X'|].
  split.
  { apply (Fr_weaken NoP NoP (XC curObj) (eq curObj) (EP par) (fun y => aml_pArgTypeFieldList = aml_pArgTypeFieldList /\ In curObj (kids g y)) s g s' g'); [auto| | |exact Fr'].
    - intros y _ E. unfold XC in E. symmetry. exact E.
    - intros y _ E. unfold EP in E. subst y. split; [reflexivity|exact Hin]. }
  split; [intros _ F; contradiction|]. split; [intros _; exact Hfin|]. split; [exact I|].
  split; [unfold Psi, Phi in *; lia|].
  split.
  { intros [Hr|Hr]; [contradiction|]. specialize (Q2 Hr). split; [change (ucost aml_pArgTypeFieldList) with 0; unfold Psi, Phi in *; lia|].
    split; [exact Q4|].
    eapply (TM_leaf _ NoP (XC curObj) (EP par) s g s' g' Hwf HR HTM Fr');
      [intros i o []| |intros i Hi; unfold XC in Hi; subst i; exact Hnnp|intros y Hy F; unfold EP in Hy; subst y; rewrite F in Hin; contradiction|exact Hnm].
    split.
    - intros m. unfold EP. destruct (N.eq_dec m par); [left|right]; auto.
    - intros m mo Em Hm Hmop a0 a1 rest Hk. unfold EP in Em. subst m.
      (* the object with the field list is neither of the first two arguments of a Method *)
      assert (Hnx : ~ (par = curObj /\ nolook aml_pArgTypeFieldList = true)).
      { intros (E & _). subst par. eapply (R_child_neq_parent _ _ HR); [exact Hin|reflexivity]. }
      destruct (HTM par mo Hm Hmop Hnx) as (b0 & b1 & rest0 & b0o & b1o & v & Hk0 & Hb0 & Hn0 & Hb1 & _ & Hn1 & _).
      rewrite Hk in Hk0. inversion Hk0; subst b0 b1 rest0.
      destruct Hfl as (co & op' & fl' & af' & Hco & Hinfo & (k & Hk8 & Hkf)).
      assert (Hc0 : curObj <> a0).
      { intros E. subst a0. assert (b0o = co) by congruence. subst. destruct (Hn0 _ _ _ Hinfo) as (_ & Hnf). exact (Hnf k Hk8 Hkf). }
      assert (Hc1 : curObj <> a1).
      { intros E. subst a1. assert (b1o = co) by congruence. subst. destruct (Hn1 _ _ _ Hinfo) as (_ & Hnf). exact (Hnf k Hk8 Hkf). }
      rewrite Ek in Hk. destruct (prefix2 _ _ _ _ _ _ Hk Hc0 Hc1) as (l1' & ->).
      rewrite Hnew. cbn [app]. eexists. reflexivity. }
  split; [auto|]. split; [intros Hr; contradiction|]. split; [intros Hr; contradiction|]. split; [intros Hr; contradiction|intros Hr; contradiction].
Qed.

(** the wrappers for the recursive cases whose frame is exact *)
Lemma ArgPost_exact curObj argTy s g a res s' g' :
  argTy <> aml_pArgTypeFieldList -> argTy <> aml_pArgTypeByteData -> argTy <> aml_pArgTypeNameString -> argTy <> aml_pArgTypePkgLen ->
  nolook argTy = false ->
  FD s' g' -> ExtD s g s' g' -> Fr NoP (eq curObj) NoP s g s' g' -> fresh_root g g' a -> Psi s' <= Psi s + 1 -> res <> RShort ->
  (res = ROk -> Psi s' <= Psi s /\ TM NoX s' g' /\ p_scopeStack s' = p_scopeStack s /\ kids g' curObj = kids g curObj) ->
  ArgPost curObj argTy s g (a, res) s'.
Proof.
  intros N1 N2 N3 N4 Hnl H' X' F' Hfr HPsi Hrs Hok. unfold ArgPost. exists g'.
  split; [exact H'|]. split; [exact X'|].
  split; [eapply Fr_weaken; [| | |exact F']; auto; intros y _ []|].
  split; [intros [Hr|Hr] _; [apply (Hok Hr)|contradiction]|].
  split; [intros E; contradiction|]. split; [exact Hfr|]. split; [lia|].
  split.
  { intros [Hr|Hr]; [|contradiction]. destruct (Hok Hr) as (K1 & K2 & K3 & K4). split; [lia|]. split; [exact K3|].
    apply TM_NoX_any. exact K2. }
  split; [intros Hr; contradiction|]. split; [intros _ E; contradiction|]. split; [intros _ E; contradiction|]. split; [intros _ E; contradiction|intros _; exact N1].
Qed.

Lemma TM_nolook_false curObj argTy s g : nolook argTy = false -> TM (fun m => m = curObj /\ nolook argTy = true) s g -> TM NoX s g.
Proof. intros Hn. apply TM_weaken. intros m mo _ _ (_ & F). rewrite Hn in F. discriminate. Qed.

Lemma arg_strict fuel curObj argTy s g :
  D_strict tbls fuel ->
  argTy = aml_pArgTypeTermArg \/ argTy = aml_pArgTypeDataRefObj ->
  FD s g -> IV s -> glive g 0 -> glive g curObj -> roomD 0 s ->
  TM (fun m => m = curObj /\ nolook argTy = true) s g -> notnp s curObj ->
  wp True (parseStrictTermArg fuel curObj) s (ArgPost curObj argTy s g).
Proof.
  intros IH Hty H I0 H0 Hl Hroom HTM Hnnp.
  assert (Hnl : nolook argTy = false) by (destruct Hty as [-> | ->]; reflexivity).
  eapply wp_weaken; [apply (IH curObj s g H I0 H0 Hl Hroom (TM_nolook_false _ _ _ _ Hnl HTM) Hnnp)|auto|].
  intros [a res] s' (g' & G1 & G2 & G3 & G4 & G5 & G6 & G7).
  apply (ArgPost_exact curObj argTy s g a res s' g'); auto; try (destruct Hty as [-> | ->]; discriminate).
  intros Hr. destruct (G7 Hr) as (K1 & K2 & K3 & K4). repeat split; auto. lia.
Qed.

Lemma arg_target fuel curObj argTy s g :
  D_target tbls fuel -> nolook argTy = false ->
  argTy <> aml_pArgTypeFieldList -> argTy <> aml_pArgTypeByteData -> argTy <> aml_pArgTypeNameString -> argTy <> aml_pArgTypePkgLen ->
  FD s g -> IV s -> glive g 0 -> glive g curObj -> roomD 0 s ->
  TM (fun m => m = curObj /\ nolook argTy = true) s g ->
  wp True (parseTarget fuel) s (ArgPost curObj argTy s g).
Proof.
  intros IH Hnl N1 N2 N3 N4 H I0 H0 Hl Hroom HTM.
  eapply wp_weaken; [apply (IH s g H I0 H0 Hroom (TM_nolook_false _ _ _ _ Hnl HTM))|auto|].
  intros [a res] s' (g' & G1 & G2 & G3 & G4 & G5 & G6 & G7).
  apply (ArgPost_exact curObj argTy s g a res s' g'); auto.
  - eapply Fr_weaken; [| | |exact G3]; auto. intros y _ [].
  - intros Hr. destruct (G7 Hr) as (K1 & K2 & K3). repeat split; auto.
    destruct (fr_kids _ _ _ _ _ _ _ G3 curObj Hl) as (_ & Hex); [intros []|]. apply Hex. intros [].
Qed.

Definition m_termlist (fuel : nat) (curObj : N) : M (option N * pres) :=
  mlet scope <~ newObj aml_pOpIntScopeBlock ;;
  mlet off <~ offsetM ;;
  wrf scope (set_amlOffset off) ;;;
  mlet scopeIndex <~ rdf scope o_index ;;
  scopeEnter scopeIndex ;;;
  mlet allBlocks <~ Parser.get p_allBlocks ;;
  if negb allBlocks then ret (Some scope, RShort) else
  appendM (Some curObj) scope ;;;
  mlet ok <~ termList_go fuel ;;
  if negb ok then ret (None, RFailed) else
  scopeExit ;;;
  detachM (Some curObj) (Some scope) ;;;
  ret (Some scope, ROk).

Lemma arg_termlist fuel curObj s g :
  D_termlist tbls fuel ->
  FD s g -> IV s -> glive g 0 -> glive g curObj -> roomD 1 s ->
  TM (fun m => m = curObj /\ nolook aml_pArgTypeTermList = true) s g -> notnp s curObj ->
  wp True (m_termlist fuel curObj) s (ArgPost curObj aml_pArgTypeTermList s g).
Proof.
  intros IH H I0 H0 Hl Hroom HTM0 Hnnp. pose proof (fi_R _ _ H) as HR. pose proof (R_gwf _ _ HR) as Hwf.
  pose proof (roomD_lp _ _ Hroom) as Hlp. pose proof (fi_rok _ _ H) as Hrok.
  assert (HTM : TM NoX s g) by (apply (TM_nolook_false curObj aml_pArgTypeTermList); [reflexivity|exact HTM0]).
  unfold m_termlist.
  wbi tbls I0. eapply new_step2; [exact H|apply (newokb_sound aml_pOpIntScopeBlock eq_refl)|lia|].
  intros p t2 g2 po H2 Hext2 Hfresh2 Hlive2 Hroot2 Hkids2 Hpo Hpop _ Hpidx Hl2 Hfw2 Hks2 Hlv2 I2.
  set (s2 := with_tree s t2) in *.
  assert (F2 : Fr NoP (eq curObj) NoP s g s2 g2) by (apply (Fr_new NoP (eq curObj) NoP s g s g t2 g2 p (Fr_refl _ _ _ s g) (fun x Hx => Hx) Hfresh2 Hfw2 Hks2)).
  assert (A2 : at_ s s2 0 1) by (eapply at_new'; [apply at_refl; exact Hrok|exact Hl2|reflexivity]).
  wbi tbls I2. apply wp_get. intros _.
  wwrfI tbls I2 H2 Hlive2. intros o3 Hg3 Hlo3 H3 I3.
  match type of H3 with FIm true ?st _ => set (s3 := st) in * end.
  assert (F3 : Fr NoP (eq curObj) NoP s g s3 g2) by (apply Fr_tset_fresh; [exact F2|exact Hfresh2]).
  assert (A3 : at_ s s3 0 1) by (apply at_tset; exact A2).
  destruct (FI_live_get _ _ _ H3 Hlive2) as (po3 & Hpo3 & _).
  wbi tbls I3. apply wp_rdf. exists po3. split; [exact Hpo3|]. intros _. rewrite (R_index _ _ (fi_R _ _ H3) _ _ Hpo3).
  wbi tbls I3. apply wp_scopeEnter. intros I4.
  set (s4 := with_scopeStack s3 (p :: p_scopeStack s3)) in *.
  assert (Est4 : p_scopeStack s4 = p :: p_scopeStack s) by reflexivity.
  assert (H4 : FD s4 g2).
  { apply FI_with_scope; [exact H3|]. constructor; [exact Hlive2|]. apply (fi_scopes _ _ H3). }
  wbi tbls I4. apply wp_get. intros _. rewrite (fi_skip _ _ H4). cbn [negb].
  assert (F4 : Fr NoP (eq curObj) NoP s g s4 g2) by (eapply Fr_tree_eq; [exact F3|reflexivity]).
  wbi tbls I4. eapply (append_step _ curObj p s4 g2 g); [exact H4|exact Hwf|exact Hext2|exact Hl|exact Hfresh2|exact Hlive2|exact Hroot2|].
  intros t5 H5 Hext5 Hpf5 Hk5 Hk5' I5.
  set (g5 := astep g2 (OpAppend curObj p)) in *. set (s5 := with_tree s4 t5) in *.
  assert (F5 : Fr NoP (eq curObj) NoP s g s5 g5).
  { apply (Fr_append NoP (eq curObj) NoP s g s4 g2 t5 g5 curObj p F4 Hpf5 Hk5 Hk5'). intros _. left. reflexivity. }
  assert (EP5 : Psi s5 <= Psi s + 1).
  { pose proof (at_Psi _ _ _ _ A3) as P3. assert (E : Psi s5 = Psi s3); [|lia].
    unfold Psi, lp, rem, s5, s4. pcbn. rewrite (proj1 Hpf5). reflexivity. }
  assert (Hkc5 : kids g5 curObj = kids g curObj ++ [p]) by (rewrite Hk5, Hks2; reflexivity).
  assert (Hlive5 : glive g5 p) by (apply glive_append; exact Hlive2).
  assert (Hpc : p <> curObj) by (intros E; apply Hfresh2; rewrite E; exact Hl).
  assert (Est5 : p_scopeStack s5 = p :: p_scopeStack s) by reflexivity.
  assert (Hp5 : exists po5, tget (p_tree s5) p = Some po5 /\ o_opcode po5 = aml_pOpIntScopeBlock).
  { assert (Hp4 : tget (p_tree s4) p = Some (set_amlOffset (r_offset (p_r s)) po)).
    { unfold s4, s3, s2. pcbn. rewrite get_tset, N.eqb_refl. assert (Hy : tget t2 p = Some po) by exact Hpo. rewrite Hy. reflexivity. }
    destruct (proj2 Hpf5 _ _ Hp4) as (po5 & Hpo5 & E5 & _). exists po5. split; [exact Hpo5|]. cbn [o_opcode set_amlOffset] in E5. congruence. }
  assert (HTM5 : TM NoX s5 g5).
  { eapply (TM_frame2 NoX NoX NoP (eq curObj) NoP s g s5 g5 Hwf HR HTM F5); try (intros; contradiction); try apply Eok_NoP; [intros i <-; exact Hnnp|].
    intros m mo Hm Hmop Hnl. exfalso.
    assert (Hl5m : glive g5 m) by (apply (R_live_glive _ _ (fi_R _ _ H5)); exists mo; split; [exact Hm|rewrite Hmop; discriminate]).
    apply glive_append in Hl5m. destruct (Hlv2 m Hl5m) as [F|F]; [contradiction|]. subst m.
    destruct Hp5 as (po5 & Hpo5 & Eop5). assert (po5 = mo) by congruence. subst. rewrite Hmop in Eop5. discriminate. }
  assert (H05 : glive g5 0) by (apply glive_append; apply (ge_live _ _ Hext2); exact H0).
  assert (Hnnp5 : notnp s5 p).
  { intros co Hco.
    assert (Hp4 : tget (p_tree s4) p = Some (set_amlOffset (r_offset (p_r s)) po)).
    { unfold s4, s3, s2. pcbn. rewrite get_tset, N.eqb_refl. assert (Hy : tget t2 p = Some po) by exact Hpo. rewrite Hy. reflexivity. }
    destruct (proj2 Hpf5 _ _ Hp4) as (po5 & Hpo5 & _ & E5' & _). change (tget t5 p = Some co) in Hco. assert (po5 = co) by congruence. subst po5.
    cbn [o_infoIndex set_amlOffset] in E5'. rewrite E5'. intros E. rewrite E in Hpidx. vm_compute in Hpidx. discriminate. }
  wbi tbls I5. eapply wp_weaken; [apply (IH s5 g5 p (p_scopeStack s) H5 I5 H05 Est5)| |].
  { unfold roomD in *. lia. }
  { exact HTM5. }
  { exact Hnnp5. }
  { auto. }
  intros ok s6 (g6 & H6 & X6 & G3 & G4 & G5) I6.
  assert (Hext6 : gext g g6) by (eapply gext_trans; [exact Hext5|apply (xd_g _ _ _ _ X6)]).
  assert (Hlc5 : glive g5 curObj) by (apply glive_append; apply (ge_live _ _ Hext2); exact Hl).
  assert (Hkc6 : kids g6 curObj = kids g curObj ++ [p]).
  { destruct (fr_kids _ _ _ _ _ _ _ G3 curObj Hlc5) as (_ & Hex); [intros []|]. rewrite Hex; [exact Hkc5|]. intros E. apply Hpc. exact E. }
  assert (HX6 : forall s', p_scopeStack s' = p_scopeStack s6 \/ (exists x, p_scopeStack s6 = x :: p_scopeStack s') ->
            r_offset (p_r s') = r_offset (p_r s6) -> r_len (p_r s') = r_len (p_r s6) -> forall g', gext g g' ->
            (exists e, p_scopeStack s' = e ++ p_scopeStack s) -> ExtD s g s' g').
  { intros s' _ E3 E4 g' Hg' Hsc. constructor; [exact Hg'| | |exact Hsc].
    - rewrite E4, (xd_len _ _ _ _ X6). destruct A3 as (L & _). exact L.
    - rewrite E3. pose proof (xd_off _ _ _ _ X6) as O. destruct A3 as (_ & O3 & _).
      change (r_offset (p_r s5)) with (r_offset (p_r s3)) in O. lia. }
  assert (Hkeep6 : keep NoP s g s6).
  { eapply keep_trans; [apply (fr_keep _ _ _ _ _ _ _ F5)|apply (fr_keep _ _ _ _ _ _ _ G3)| |auto].
    intros y Hy. apply glive_append. apply (ge_live _ _ Hext2). exact Hy. }
  destruct ok; cbn [negb].
  2:{ apply wp_ret. unfold ArgPost. exists g6. split; [exact H6|].
      destruct (xd_scopes _ _ _ _ X6) as (e & Ee).
      split; [apply (HX6 s6); auto; exists (e ++ [p]); rewrite Ee, Est5, <- app_assoc; reflexivity|].
      split.
      { constructor; [exact Hkeep6|]. intros y Hy _.
        destruct (N.eq_dec y curObj) as [->|Hne].
        - split; [exists [p]; exact Hkc6|]. intros F. exfalso. apply F. reflexivity.
        - assert (Hy5 : glive g5 y) by (apply glive_append; apply (ge_live _ _ Hext2); exact Hy).
          destruct (fr_kids _ _ _ _ _ _ _ G3 y Hy5) as (_ & Hex); [intros []|].
          assert (E6 : kids g6 y = kids g y).
          { rewrite Hex; [|intros E; subst y; contradiction]. rewrite (Hk5' y Hne). apply Hks2. }
          rewrite E6. split; [exists []; rewrite app_nil_r; reflexivity|reflexivity]. }
      split; [intros [Hr|Hr]; discriminate|]. split; [intros E; discriminate|]. split; [exact I|].
      split; [lia|]. split; [intros [Hr|Hr]; discriminate|].
      split; [intros E; discriminate|]. split; [intros E; discriminate|]. split; [intros E; discriminate|]. split; [intros E; discriminate|intros E; discriminate]. }
  destruct (G5 eq_refl) as (K1 & K2 & K3).
  rewrite Est5 in K3.
  wbi tbls I6. eapply wp_scopeExit; [exact K3|]. intros I7.
  set (s7 := with_scopeStack s6 (p_scopeStack s)) in *.
  assert (H7 : FD s7 g6).
  { apply FI_with_scope; [exact H6|]. pose proof (fi_scopes _ _ H6) as Fs. rewrite K3 in Fs. inversion Fs; auto. }
  wbi tbls I7. eapply (detach_last_step _ curObj p s7 g g6); [exact H7|exact Hwf|exact Hext6|exact Hl|exact Hfresh2|exact Hkc6|].
  intros t8 g8 H8 Hext8 Hpf8 Hkc8 Hkq8 Hlive8 Hroot8 I8.
  set (s8 := with_tree s7 t8) in *.
  apply wp_ret. unfold ArgPost. exists g8. split; [exact H8|].
  split; [apply (HX6 s8); auto; [right; exists p; exact K3|exists []; reflexivity]|].
  assert (Hkids8 : forall y, glive g y -> kids g8 y = kids g y).
  { intros y Hy. destruct (N.eq_dec y curObj) as [->|Hne]; [exact Hkc8|].
    rewrite (Hkq8 y Hne).
    assert (Hy5 : glive g5 y) by (apply glive_append; apply (ge_live _ _ Hext2); exact Hy).
    destruct (fr_kids _ _ _ _ _ _ _ G3 y Hy5) as (_ & Hex); [intros []|].
    rewrite Hex; [|intros E; subst y; contradiction]. rewrite (Hk5' y Hne). apply Hks2. }
  assert (F8 : Fr NoP NoP NoP s g s8 g8).
  { constructor; [apply keep_pframe; [exact Hkeep6|exact Hpf8]|]. intros y Hy _. rewrite (Hkids8 y Hy).
    split; [exists []; rewrite app_nil_r; reflexivity|reflexivity]. }
  split; [eapply Fr_weaken; [| | |exact F8]; auto; intros y _ []|].
  split; [intros _ _; apply Hkids8; exact Hl|]. split; [intros E; discriminate|].
  split; [cbn [fresh_root]; split; [exact Hfresh2|split; [exact Hlive8|exact Hroot8]]|].
  assert (EP8 : Psi s8 = Psi s6) by (unfold Psi, lp, rem, s8, s7; pcbn; rewrite (proj1 Hpf8); reflexivity).
  split; [lia|].
  split.
  { intros _. split; [change (ucost aml_pArgTypeTermList) with 1; lia|]. split; [reflexivity|].
    apply TM_NoX_any.
    eapply (TM_frame2 NoX NoX NoP NoP NoP s g s8 g8 Hwf HR HTM F8); try (intros; contradiction); try apply Eok_NoP.
    intros m mo Hm Hmop Hnl. right.
    unfold s8 in Hm. pcbn_in Hm.
    destruct (pframe_inv _ _ _ _ Hpf8 Hm) as (mo6 & Hm6 & E6 & _).
    assert (Ht6 : mtyped s6 g6 m) by (apply (K2 m mo6 Hm6); [congruence|intros []]).
    assert (Hmc : m <> curObj) by (intros E; subst m; contradiction).
    assert (Ht7 : mtyped s7 g6 m).
    { destruct Ht6 as (a0 & a1 & rest & a0o & a1o & v & Q). exists a0, a1, rest, a0o, a1o, v. exact Q. }
    exact (mtyped_pframe_kids s7 g6 t8 g8 m curObj (R_gwf _ _ (fi_R _ _ H6)) Ht7 Hpf8 Hkq8 Hmc (notnp_keep NoP s g s6 curObj Hkeep6 HR Hl Hnnp)). }
  split; [intros E; discriminate|]. split; [intros _ E; discriminate|]. split; [intros _ E; discriminate|]. split; [intros _ E; discriminate|intros _ E; discriminate].
Qed.

Lemma roomD_mono k s : roomD k s -> roomD 0 s.
Proof. unfold roomD. lia. Qed.

Lemma nolook_split argTy : nolook argTy = simple_arg argTy || (argTy =? aml_pArgTypeByteList) || (argTy =? aml_pArgTypePkgLen) || (argTy =? aml_pArgTypeFieldList).
Proof. reflexivity. Qed.

Lemma step_Darg fuel : D_strict tbls fuel -> D_termlist tbls fuel -> D_target tbls fuel -> D_arg tbls (S fuel).
Proof.
  intros IHs IHt IHg op fl af curObj argTy s g H I0 H0 Hl Hroom Hfl HTM Hnnp.
  assert (K : wp True (parseArg (S fuel) (op, fl, af) curObj argTy) s (ArgPost curObj argTy s g));
    [|eapply wp_weaken; [exact K|auto|intros [a res] s' Hp; exact Hp]].
  cbn [parseArg].
  change ((argTy =? aml_pArgTypeByteData) || (argTy =? aml_pArgTypeWordData) || (argTy =? aml_pArgTypeDwordData) ||
          (argTy =? aml_pArgTypeQwordData) || (argTy =? aml_pArgTypeString) || (argTy =? aml_pArgTypeNameString)) with (simple_arg argTy).
  destruct (simple_arg argTy) eqn:Es.
  { apply arg_simple; auto. eapply roomD_mono; eauto. }
  destruct (N.eqb_spec argTy aml_pArgTypeByteList) as [E1|E1].
  { subst argTy. apply arg_bytelist; auto. }
  destruct (N.eqb_spec argTy aml_pArgTypePkgLen) as [E2|E2].
  { subst argTy. apply (arg_pkglen curObj fl); auto. }
  destruct (N.eqb_spec argTy aml_pArgTypeFieldList) as [E3|E3].
  { subst argTy. destruct (Hfl eq_refl) as (Hp & HLN & Hhf). apply arg_fieldlist; auto. }
  assert (Hnl : nolook argTy = false).
  { rewrite nolook_split, Es. apply N.eqb_neq in E1. apply N.eqb_neq in E2. apply N.eqb_neq in E3. rewrite E1, E2, E3. reflexivity. }
  assert (N4 : argTy <> aml_pArgTypeByteData) by (intros ->; vm_compute in Es; discriminate).
  assert (N5 : argTy <> aml_pArgTypeNameString) by (intros ->; vm_compute in Es; discriminate).
  destruct ((argTy =? aml_pArgTypeTermArg) || (argTy =? aml_pArgTypeDataRefObj)) eqn:E4.
  { apply wp_bind, wp_get. rewrite (fi_skip _ _ H).
    apply (arg_strict fuel curObj argTy s g IHs); auto; [|eapply roomD_mono; eauto].
    apply orb_true_iff in E4. destruct E4 as [E|E]; apply N.eqb_eq in E; auto. }
  destruct (N.eqb_spec argTy aml_pArgTypeTermList) as [E5|E5].
  { subst argTy. apply (arg_termlist fuel curObj s g IHt); auto. }
  apply (arg_target fuel curObj argTy s g IHg); auto. eapply roomD_mono; eauto.
Qed.

End StepA.
