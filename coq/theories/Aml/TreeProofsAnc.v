(** C13 proofs, part 4: ClosestNamedAncestor walks the parent chain of the forest and, when every
    live object carries an opcode-table index inside the table, never panics. *)
From Coq Require Import NArith ZArith List Bool Lia.
From Coq Require Import ZifyBool ZifyN ZifyNat.
From FF Require Import Lib.Word Gen.Consts_aml_tree Aml.Stream Aml.Tree Aml.TreeSpec Aml.TreeProofs
                       Aml.TreeProofsOps Aml.TreeProofsFind.
Import ListNotations.
Local Open Scope N_scope.

(** every live object's infoIndex is an index of pOpcodeTable (true for objects created with an
    opcode that has a table entry) *)
Definition info_ok {V} (t : ObjectTree V) : Prop :=
  forall i o, get t i = Some o -> o_opcode o <> opFreed ->
    (N.to_nat (o_infoIndex o) < length tree_opcodeTableFlags)%nat.

Definition opcode_at {V} (t : ObjectTree V) (i : N) : N :=
  match get t i with Some o => o_opcode o | None => 0 end.

Definition named_at {V} (t : ObjectTree V) (i : N) : bool :=
  match get t i with
  | Some o => negb (N.land (nth (N.to_nat (o_infoIndex o)) tree_opcodeTableFlags 0) tree_pOpFlagNamed =? 0)
  | None => false
  end.

(** reference: starting at ancestor [a], the first ancestor that is named, unless a Scope
    directive is met first *)
Fixpoint closest_from {V} (t : ObjectTree V) (g : ghost) (fuel : nat) (a : N) : option N :=
  match fuel with
  | O => None
  | S fuel =>
      if opcode_at t a =? opScope then None
      else if named_at t a then Some a
      else match parent_of g a with Some p => closest_from t g fuel p | None => None end
  end.

Definition closest_ref {V} (t : ObjectTree V) (g : ghost) (p : N) : option N :=
  match parent_of g p with Some a => closest_from t g (length (g_kids g)) a | None => None end.

Section Anc.
Context {V : Type} (t : ObjectTree V) (g : ghost) (HR : R t g) (Hinfo : info_ok t).

Lemma closest_go_spec : forall k a, Depth t a k ->
  forall fi fs, (k + 2 <= fi)%nat -> (k + 1 <= fs)%nat ->
  closest_go fi t a = Ok (enc_result (closest_from t g fs a)).
Proof.
  intros k a Hd.
  induction Hd as [a ao Hg Hl Hp | a ao k Hg Hl Hp Hd IH]; intros fi fs Hfi Hfs;
    (destruct fi as [|fi]; [lia|]); (destruct fs as [|fs]; [lia|]); cbn [closest_go closest_from];
    rewrite (R_eqb_Inv t g HR _ _ Hg), (R_ObjectAt_deref t g HR _ _ Hg Hl); cbn [bind];
    rewrite deref_get, Hg; cbn [bind];
    unfold opcode_at, named_at; rewrite Hg;
    (destruct (o_opcode ao =? opScope); [reflexivity|]);
    pose proof (Hinfo _ _ Hg Hl) as Hi;
    (destruct (nth_error tree_opcodeTableFlags (N.to_nat (o_infoIndex ao))) as [fl|] eqn:Ef;
       [|apply nth_error_None in Ef; lia]);
    rewrite (nth_error_nth _ _ 0 Ef);
    (destruct (negb (N.land fl tree_pOpFlagNamed =? 0)); [reflexivity|]);
    rewrite (parent_of_spec t g a ao HR Hg Hl).
  - rewrite Hp, N.eqb_refl. destruct fi as [|fi]; [lia|]. cbn [closest_go]. rewrite N.eqb_refl. reflexivity.
  - apply N.eqb_neq in Hp. rewrite Hp. apply IH; lia.
Qed.

Theorem ClosestNamedAncestor_spec p : live t p ->
  ClosestNamedAncestor t (Some p) = Ok (enc_result (closest_ref t g p)).
Proof.
  intros (po & Hg & Hl). unfold ClosestNamedAncestor, closest_ref. rewrite (rd_ok _ _ _ _ Hg). cbn [bind].
  rewrite (parent_of_spec t g p po HR Hg Hl).
  destruct (N.eqb_spec (o_parent po) InvalidIndex) as [E|E].
  - rewrite E. unfold chain_fuel. cbn [closest_go]. rewrite N.eqb_refl. reflexivity.
  - destruct (R_parent_live t g HR _ _ Hg Hl E) as (_ & ao & Ha & Hal).
    destruct (R_acyc _ _ HR _ _ Ha Hal) as (k & Hd).
    pose proof (Depth_bound t _ _ Hd) as Hk.
    apply closest_go_spec with (k := k); auto.
    + unfold chain_fuel. lia.
    + rewrite (R_len _ _ HR). lia.
Qed.

End Anc.
