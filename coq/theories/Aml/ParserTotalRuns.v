(** Transition judgements on the parser monad.

    [runs P m]: every successful run of [m] takes a state [s] to a state [s'] with [P s s'].  When [P] is a preorder
    the judgement is closed under [ret], [bindM] and case distinction, so whether a parser function runs within [P]
    is decided by the state updates of the primitives it is built from.  [first_pass_runs] carries out that induction
    on the fuel once, for the nine mutually recursive functions of the first and of the deferred pass and for the
    functions they call: it asks that [P] contains

    - every change of the reader and of the two stacks ([inert]),
    - the creation of an object whose opcode is in [okop], and the write of such an opcode,
    - every write that keeps opcode and table handle of the slot,
    - every change of links ([pframe]).

    The opcodes the parser creates are the internal ones it names and those [nextOpcode] accepts; [okop] must hold
    of both.  pOpIntNamePathOrMethodCall is created in the mode of the first pass only; [P] needs to contain that step
    for such states only ([P_new_npc]).

    [field_steps] and [no_new_steps] give the step conditions for the two common kinds of [P]: a component of the state
    that only the mode or counter updates touch, and "no object gains the opcode [X]".  The judgements whose writes
    depend on what was read or created just before (ParserProofs.v, ParserTotalGoodPath.v, ParserTotalTyped.v) carry
    their own induction. *)
From Coq Require Import NArith Arith List Bool Lia.
From FF Require Import Lib.Word Gen.Consts_device_acpi_aml Aml.Stream Aml.Lex Aml.Tree Aml.Parser Aml.TreeSpec Aml.TreeProofs
  Aml.ParserTotalTree Aml.ParserTotalTree2.
Import ListNotations.
Local Open Scope N_scope.

Definition runs {A} (P : pstate -> pstate -> Prop) (m : M A) : Prop := forall s a s', m s = Ok (a, s') -> P s s'.

Lemma runs_weaken {A} (P Q : pstate -> pstate -> Prop) (m : M A) : (forall s s', P s s' -> Q s s') -> runs P m -> runs Q m.
Proof. intros H Hm s a s' E. exact (H _ _ (Hm _ _ _ E)). Qed.

Lemma runs_panic {A} (P : pstate -> pstate -> Prop) : runs P (@panic A).
Proof. intros s a s' E. discriminate. Qed.
Lemma runs_outOfFuel {A} (P : pstate -> pstate -> Prop) : runs P (@outOfFuel A).
Proof. intros s a s' E. discriminate. Qed.
Lemma runs_if {A} (P : pstate -> pstate -> Prop) (b : bool) (m1 m2 : M A) : runs P m1 -> runs P m2 -> runs P (if b then m1 else m2).
Proof. destruct b; auto. Qed.

Lemma runs_step {A} (P : pstate -> pstate -> Prop) (m : M A) :
  (forall s, match m s with Ok (_, s') => P s s' | _ => True end) -> runs P m.
Proof. intros H s a s' E. specialize (H s). rewrite E in H. exact H. Qed.

Lemma runs_lex {A B} (P : pstate -> pstate -> Prop) (f : reader -> outcome (A * bool * reader)) (k : A * bool -> M B) :
  (forall s1 s2 s3, P s1 s2 -> P s2 s3 -> P s1 s3) -> runs P (lex f) ->
  (forall r a ok r', f r = Ok (a, ok, r') -> runs P (k (a, ok))) -> runs P (bindM (lex f) k).
Proof.
  intros Ht Hl Hk s b s' H. unfold bindM in H. destruct (lex f s) as [[[a ok] s1]| |] eqn:E1; try discriminate.
  apply (Ht _ s1); [exact (Hl _ _ _ E1)|].
  unfold lex in E1. destruct (f (p_r s)) as [[[a' ok'] r']| |] eqn:E; try discriminate. inversion E1; subst a' ok' s1.
  exact (Hk _ _ _ _ E _ _ _ H).
Qed.

Section Preorder.
Variable P : pstate -> pstate -> Prop.
Hypothesis P_refl : forall s, P s s.
Hypothesis P_trans : forall s1 s2 s3, P s1 s2 -> P s2 s3 -> P s1 s3.

Lemma runs_ret {A} (a : A) : runs P (ret a).
Proof. intros s a' s' E. inversion E; subst. apply P_refl. Qed.
Lemma runs_bind {A B} (m : M A) (f : A -> M B) : runs P m -> (forall a, runs P (f a)) -> runs P (bindM m f).
Proof.
  intros Hm Hf s b s' H. unfold bindM in H. destruct (m s) as [[a s1]| |] eqn:E; try discriminate.
  exact (P_trans _ _ _ (Hm _ _ _ E) (Hf a _ _ _ H)).
Qed.
End Preorder.

Definition inert (s s' : pstate) : Prop :=
  p_tree s' = p_tree s /\ p_handle s' = p_handle s /\ p_allBlocks s' = p_allBlocks s /\ p_tables s' = p_tables s.

Lemma inert_refl s : inert s s.
Proof. repeat split. Qed.
Lemma inert_trans s1 s2 s3 : inert s1 s2 -> inert s2 s3 -> inert s1 s3.
Proof. intros (A1 & A2 & A3 & A4) (B1 & B2 & B3 & B4). repeat split; congruence. Qed.

Lemma inert_ret {A} (a : A) : runs inert (ret a).
Proof. apply runs_ret, inert_refl. Qed.
Lemma inert_get {A} (f : pstate -> A) : runs inert (Parser.get f).
Proof. apply runs_step. intros s. apply inert_refl. Qed.
Lemma inert_liftf {A} (f : pstate -> outcome A) : runs inert (fun s => lift (f s) s).
Proof. apply runs_step. intros s. unfold lift. destruct (f s); [apply inert_refl|exact I|exact I]. Qed.
Lemma inert_lift {A} (o : outcome A) : runs inert (lift o).
Proof. apply (inert_liftf (fun _ => o)). Qed.
Lemma inert_tq {A} (f : T -> outcome A) : runs inert (tq f).
Proof. apply (inert_liftf (fun s => f (p_tree s))). Qed.
Lemma inert_need (o : option N) : runs inert (need o).
Proof. destruct o; [apply inert_ret|apply runs_panic]. Qed.
Lemma inert_info i : runs inert (info i).
Proof. unfold info. destruct (opInfo i); [apply inert_ret|apply runs_panic]. Qed.
Lemma inert_tableIndex op b : runs inert (tableIndex op b).
Proof. unfold tableIndex. destruct (opcodeTableIndex op b); [apply inert_ret|apply runs_panic]. Qed.
Lemma inert_lex {A} (f : reader -> outcome (A * bool * reader)) : runs inert (lex f).
Proof. apply runs_step. intros s. unfold lex. destruct (f (p_r s)) as [[[a ok] r]| |]; repeat split. Qed.
Lemma inert_ru f : runs inert (ru f).
Proof. apply runs_step. intros s. repeat split. Qed.
Lemma inert_readByteM : runs inert readByteM.
Proof. apply runs_step. intros s. unfold readByteM. destruct (readByte (p_r s)) as [[b r]| |]; repeat split. Qed.
Lemma inert_setPkgEndM e : runs inert (setPkgEndM e).
Proof. apply runs_step. intros s. unfold setPkgEndM. destruct (setPkgEnd (p_r s) e). repeat split. Qed.
Lemma inert_scopeEnter i : runs inert (scopeEnter i).
Proof. apply runs_step. intros s. repeat split. Qed.
Lemma inert_scopeExit : runs inert scopeExit.
Proof. apply runs_step. intros s. unfold scopeExit. destruct (p_scopeStack s); repeat split. Qed.
Lemma inert_popPkgEnd : runs inert popPkgEnd.
Proof. apply runs_step. intros s. unfold popPkgEnd. destruct (match p_pkgEndStack s with [] => [] | _ :: rest => rest end); repeat split. Qed.
Lemma inert_upd (f : pstate -> pstate) : (forall s, inert s (f s)) -> runs inert (fun s => Ok (tt, f s)).
Proof. intros Hf. apply runs_step. exact Hf. Qed.

Create HintDb inert discriminated.
#[global] Hint Resolve inert_ret inert_get inert_liftf inert_lift inert_tq inert_need inert_info inert_tableIndex inert_lex inert_ru
  inert_readByteM inert_setPkgEndM inert_scopeEnter inert_scopeExit inert_popPkgEnd runs_panic runs_outOfFuel : inert.

Ltac inert_prim := first [ solve [auto 1 with inert nocore] | solve [apply inert_upd; intros; repeat split] ].

Ltac inert_tac :=
  repeat lazymatch goal with
  | |- runs inert (bindM _ _) => apply (runs_bind inert inert_trans); [|intros ?]
  | |- runs inert (match ?x with _ => _ end) => first [apply runs_if | destruct x]
  | |- _ => inert_prim
  end.

Ltac parser_unf :=
  unfold offsetM, eofM, curTable, objectAt', appendM, detachM, setOffsetM, pushPkgEnd, bytesOf, scopeCurrent,
         methodArgCountPanic, streamFuel, poolFuel, fieldByte, setNameFrom;
  unfold rq, rdf, rdo, objectAt.

(** [m] is a call of one of the nine mutually recursive functions (induction hypotheses [H1] .. [H9], in the order of
    Parser.v) or of a leaf ([Hs]: parseSimpleArg, [Hb]: parseByteList, [Hf]: parseFieldElements): apply what speaks of it *)
Ltac block_call m H1 H2 H3 H4 H5 H6 H7 H8 H9 Hs Hb Hf :=
  lazymatch m with
  | parseNextObject _ => apply H1
  | parseObjectArgs _ _ => apply H2
  | parseArgs _ _ _ _ => apply H3
  | parseArg _ _ _ _ => apply H4
  | termList_go _ => apply H5
  | parseNamePathOrMethodCall _ => apply H6
  | callArgs_go _ _ => apply H7
  | parseStrictTermArg _ _ => apply H8
  | parseTarget _ => apply H9
  | parseSimpleArg _ => apply Hs
  | parseByteList _ _ => apply Hb
  | parseFieldElements _ => apply Hf
  end.

Lemma peek_of_next r op ok r' : peekNextOpcode r = Ok (op, ok, r') -> exists r1, nextOpcode r = Ok (op, ok, r1).
Proof.
  unfold peekNextOpcode. destruct (nextOpcode r) as [[[op1 ok1] r1]| |]; cbn [bind]; try discriminate.
  intros H. inversion H; subst. eauto.
Qed.

(** the internal opcodes the parser names when it creates an object or rewrites one, pOpIntNamePathOrMethodCall apart *)
Definition named_opcodes : list N :=
  [0; aml_pOpIntByteList; aml_pOpBytePrefix; aml_pOpWordPrefix; aml_pOpDwordPrefix; aml_pOpQwordPrefix; aml_pOpStringPrefix;
   aml_pOpIntNamePath; aml_pOpIntConnection; aml_pOpIntNamedField; aml_pOpIntScopeBlock; aml_pOpIntResolvedNamePath;
   aml_pOpIntMethodCall].

Record steps (P : pstate -> pstate -> Prop) (okop : N -> Prop) : Prop := mkSteps {
  st_refl : forall s, P s s;
  st_trans : forall s1 s2 s3, P s1 s2 -> P s2 s3 -> P s1 s3;
  st_inert : forall s s', inert s s' -> P s s';
  st_new : forall s opc t p, okop opc -> newObject (p_tree s) opc (p_handle s) = Ok (t, p) -> P s (with_tree s t);
  st_wr : forall s p f t, (forall o : Obj, o_opcode (f o) = o_opcode o /\ o_tableHandle (f o) = o_tableHandle o) ->
    wr (p_tree s) p f = Ok t -> P s (with_tree s t);
  st_wr_opcode : forall s p op t, okop op -> wr (p_tree s) p (set_opcode op) = Ok t -> P s (with_tree s t);
  st_link : forall s t, pframe (p_tree s) t -> P s (with_tree s t);
  st_named : forall op, In op named_opcodes -> okop op
}.

Section FirstPass.
Variable P : pstate -> pstate -> Prop.
Variable okop : N -> Prop.
Hypothesis HP : steps P okop.
Let P_refl := st_refl _ _ HP.
Let P_trans := st_trans _ _ HP.
Let okop_named := st_named _ _ HP.

Notation runsP := (runs P).

Lemma runs_inert {A} (m : M A) : runs inert m -> runsP m.
Proof. apply runs_weaken. exact (st_inert _ _ HP). Qed.
Lemma runs_newObj opc : okop opc -> runsP (newObj opc).
Proof.
  intros Hok. apply runs_step. intros s. unfold newObj.
  destruct (newObject (p_tree s) opc (p_handle s)) as [[t p]| |] eqn:E; [exact (st_new _ _ HP _ _ _ _ Hok E)|exact I|exact I].
Qed.
Lemma runs_tu (f : T -> outcome T) : (forall s t, f (p_tree s) = Ok t -> P s (with_tree s t)) -> runsP (tu f).
Proof. intros Hf. apply runs_step. intros s. unfold tu. destruct (f (p_tree s)) as [t| |] eqn:E; [exact (Hf _ _ E)|exact I|exact I]. Qed.
Lemma runs_wrf p f : (forall o : Obj, o_opcode (f o) = o_opcode o /\ o_tableHandle (f o) = o_tableHandle o) -> runsP (wrf p f).
Proof. intros Hf. apply runs_tu. intros s t. apply (st_wr _ _ HP). exact Hf. Qed.
Lemma runs_wrf_opcode p op : okop op -> runsP (wrf p (set_opcode op)).
Proof. intros Hok. apply runs_tu. intros s t. apply (st_wr_opcode _ _ HP). exact Hok. Qed.
Lemma runs_link (f : T -> outcome T) : (forall t t', f t = Ok t' -> pframe t t') -> runsP (tu f).
Proof. intros Hf. apply runs_tu. intros s t E. apply (st_link _ _ HP). exact (Hf _ _ E). Qed.

Ltac runs_leaf call :=
  lazymatch goal with
  | |- runs _ (newObj _) => apply runs_newObj; first [assumption | apply okop_named; cbn [In]; repeat first [left; reflexivity | right]]
  | |- runs _ (wrf _ (set_opcode _)) => apply runs_wrf_opcode; first [assumption | apply okop_named; cbn [In]; repeat first [left; reflexivity | right]]
  | |- runs _ (wrf _ _) => apply runs_wrf; let o := fresh "o" in intros o; split; reflexivity
  | |- runs _ (tu (fun t => append t _ _)) => apply runs_link; intros ? ?; apply append_pframe
  | |- runs _ (tu (fun t => appendAfter t _ _ _)) => apply runs_link; intros ? ?; apply appendAfter_pframe
  | |- runs _ (tu (fun t => detach t _ _)) => apply runs_link; intros ? ?; apply detach_pframe
  | |- _ => first [ call | (apply runs_inert; inert_prim) ]
  end.

Ltac runs_tac call :=
  repeat lazymatch goal with
  | |- runs _ (bindM _ _) => apply (runs_bind P P_trans); [|intros ?]
  | |- runs _ (match ?x with _ => _ end) => first [apply runs_if | destruct x]
  | |- _ => runs_leaf call
  end.

Lemma parseByteList_runs obj n : runsP (parseByteList obj n).
Proof. unfold parseByteList. parser_unf. runs_tac fail. Qed.

Lemma parseSimpleArg_runs ty : runsP (parseSimpleArg ty).
Proof. unfold parseSimpleArg. parser_unf. cbv beta zeta. runs_tac fail. Qed.

Lemma readName_go_runs field cnt : forall i, runsP (readName_go cnt i field).
Proof. induction cnt as [|cnt IH]; intros i; cbn [readName_go]; runs_tac ltac:(apply IH). Qed.

Lemma fieldElements_go_runs fuel : forall curObj f, runsP (fieldElements_go fuel curObj f).
Proof.
  induction fuel as [|fuel IH]; intros curObj f; cbn [fieldElements_go]; [apply runs_outOfFuel|]. parser_unf.
  runs_tac ltac:(first [apply IH | apply readName_go_runs | apply parseByteList_runs]).
Qed.

Lemma parseFieldElements_runs curObj : runsP (parseFieldElements curObj).
Proof. unfold parseFieldElements. parser_unf. runs_tac ltac:(apply fieldElements_go_runs). Qed.

Lemma popAll_go_runs fuel : runsP (popAll_go fuel).
Proof. induction fuel as [|fuel IH]; cbn [popAll_go]; [apply runs_outOfFuel|]. runs_tac ltac:(apply IH). Qed.

Hypothesis P_new_npc : forall s t p, p_allBlocks s = false ->
  newObject (p_tree s) aml_pOpIntNamePathOrMethodCall (p_handle s) = Ok (t, p) -> P s (with_tree s t).
Hypothesis okop_next : forall r op r', nextOpcode r = Ok (op, true, r') -> okop op.

(** pOpIntNamePathOrMethodCall objects are created right after the mode has been read as that of the first pass *)
Lemma runs_npc {B} (k1 : N -> M B) (k2 : M B) : (forall c, runsP (k1 c)) -> runsP k2 ->
  runsP (bindM (Parser.get p_allBlocks) (fun b => if negb b then bindM (newObj aml_pOpIntNamePathOrMethodCall) k1 else k2)).
Proof.
  intros H1 H2 s b s' H. unfold bindM at 1, Parser.get in H. destruct (p_allBlocks s) eqn:Em; cbn [negb] in H; [exact (H2 _ _ _ H)|].
  unfold bindM, newObj in H. destruct (newObject (p_tree s) aml_pOpIntNamePathOrMethodCall (p_handle s)) as [[t c]| |] eqn:En; try discriminate.
  exact (P_trans _ _ _ (P_new_npc _ _ _ Em En) (H1 _ _ _ _ H)).
Qed.

Definition block_runs (fuel : nat) : Prop :=
  runsP (parseNextObject fuel) /\ (forall c, runsP (parseObjectArgs fuel c)) /\
  (forall inf c i, runsP (parseArgs fuel inf c i)) /\ (forall inf c ty, runsP (parseArg fuel inf c ty)) /\
  runsP (termList_go fuel) /\ runsP (parseNamePathOrMethodCall fuel) /\ (forall n, runsP (callArgs_go fuel n)) /\
  (forall c, runsP (parseStrictTermArg fuel c)) /\ runsP (parseTarget fuel).

Ltac runs_lex_bind r op ok r' E :=
  apply (runs_lex P _ _ P_trans); [apply runs_inert, inert_lex|intros r op ok r' E; cbv beta iota].

Ltac runs_call H1 H2 H3 H4 H5 H6 H7 H8 H9 :=
  idtac; lazymatch goal with
  | |- runs _ ?m => block_call m H1 H2 H3 H4 H5 H6 H7 H8 H9 parseSimpleArg_runs parseByteList_runs parseFieldElements_runs
  end.

Theorem first_pass_runs : forall fuel, block_runs fuel.
Proof.
  induction fuel as [|fuel (H1 & H2 & H3 & H4 & H5 & H6 & H7 & H8 & H9)].
  { repeat split; intros; apply runs_outOfFuel. }
  unfold block_runs.
  repeat match goal with |- _ /\ _ => split end; intros.
  - cbn [parseNextObject]. parser_unf. apply (runs_bind P P_trans); [apply runs_inert; inert_prim|intros curOffset].
    runs_lex_bind r nextOp ok r' E. apply runs_if; [apply runs_ret, P_refl|].
    destruct ok; cbn [negb]; [|apply H6].
    pose proof (okop_next _ _ _ E). runs_tac ltac:(runs_call H1 H2 H3 H4 H5 H6 H7 H8 H9).
  - cbn [parseObjectArgs]. parser_unf. runs_tac ltac:(runs_call H1 H2 H3 H4 H5 H6 H7 H8 H9).
  - cbn [parseArgs]. destruct inf as [[? ?] ?]. parser_unf. runs_tac ltac:(runs_call H1 H2 H3 H4 H5 H6 H7 H8 H9).
  - cbn [parseArg]. destruct inf as [[? ?] ?]. parser_unf. runs_tac ltac:(runs_call H1 H2 H3 H4 H5 H6 H7 H8 H9).
  - cbn [termList_go]. parser_unf. runs_tac ltac:(runs_call H1 H2 H3 H4 H5 H6 H7 H8 H9).
  - cbn [parseNamePathOrMethodCall]. parser_unf.
    apply (runs_bind P P_trans); [apply runs_inert; inert_prim|intros curOffset].
    apply (runs_bind P P_trans); [apply runs_inert; inert_prim|intros tbl].
    apply (runs_bind P P_trans); [apply runs_inert; inert_prim|intros [pathExpr ok]].
    apply runs_if; [apply runs_ret, P_refl|].
    apply runs_npc; [intros curObj|]; runs_tac ltac:(runs_call H1 H2 H3 H4 H5 H6 H7 H8 H9).
  - cbn [callArgs_go]. parser_unf. runs_tac ltac:(runs_call H1 H2 H3 H4 H5 H6 H7 H8 H9).
  - cbn [parseStrictTermArg]. parser_unf. apply (runs_bind P P_trans); [apply runs_inert; inert_prim|intros curOffset].
    runs_lex_bind r nextOp ok r' E. destruct ok; cbn [negb]; [|runs_tac ltac:(runs_call H1 H2 H3 H4 H5 H6 H7 H8 H9)].
    destruct (peek_of_next _ _ _ _ E) as (r1 & E1). pose proof (okop_next _ _ _ E1).
    runs_tac ltac:(runs_call H1 H2 H3 H4 H5 H6 H7 H8 H9).
  - cbn [parseTarget]. parser_unf. apply (runs_bind P P_trans); [apply runs_inert; inert_prim|intros origOffset].
    runs_lex_bind r nextOp ok r' E. destruct ok; [pose proof (okop_next _ _ _ E)|]; runs_tac ltac:(runs_call H1 H2 H3 H4 H5 H6 H7 H8 H9).
Qed.

Lemma objectList_inner_runs fuel : runsP (objectList_inner fuel).
Proof.
  induction fuel as [|fuel IH]; cbn [objectList_inner]; [apply runs_outOfFuel|]. parser_unf.
  runs_tac ltac:(first [apply IH | apply (first_pass_runs fuel)]).
Qed.
Lemma parseObjectList_runs fuel : runsP (parseObjectList fuel).
Proof.
  induction fuel as [|fuel IH]; cbn [parseObjectList]; [apply runs_outOfFuel|].
  runs_tac ltac:(first [apply IH | apply objectList_inner_runs]).
Qed.
End FirstPass.

Lemma field_steps {X} (f : pstate -> X) :
  (forall s s', inert s s' -> f s' = f s) -> (forall s t, f (with_tree s t) = f s) -> steps (fun s s' => f s' = f s) (fun _ => True).
Proof.
  intros Hi Ht. constructor; try (intros; apply Ht); try (intros; exact I).
  - reflexivity.
  - intros s1 s2 s3 A B. exact (eq_trans B A).
  - exact Hi.
Qed.

Definition no_new (X : N) (s s' : pstate) : Prop :=
  forall i o, TreeSpec.get (p_tree s') i = Some o -> o_opcode o = X -> exists o0, TreeSpec.get (p_tree s) i = Some o0 /\ o_opcode o0 = X.

Lemma no_new_steps X : ~ In X named_opcodes -> steps (no_new X) (fun op => op <> X).
Proof.
  intros HX. constructor.
  - intros s i o Ho Hop. eauto.
  - intros s1 s2 s3 A B i o Ho Hop. destruct (B i o Ho Hop) as (o1 & Ho1 & Hop1). exact (A i o1 Ho1 Hop1).
  - intros s s' (Qt & _) i o Ho Hop. rewrite Qt in Ho. eauto.
  - intros s opc t p Hne E i o Ho Hop. cbn [p_tree with_tree] in Ho.
    destruct (newObject_shape _ _ _ _ _ E) as ((po & Hpo & Hpop & _) & _ & Hbw & _).
    destruct (N.eq_dec i p) as [->|Hip]; [exfalso; apply Hne; congruence|exists o; split; [apply (Hbw i o Hip Ho)|exact Hop]].
  - intros s p f t Hf E i o Ho Hop. destruct (wr_inv _ _ _ _ E) as (-> & _).
    cbn [p_tree with_tree] in Ho. rewrite get_tset in Ho. destruct (N.eqb_spec i p) as [->|_]; [|eauto].
    destruct (TreeSpec.get (p_tree s) p) as [o0|] eqn:E0; cbn [option_map] in Ho; [|discriminate]. inversion Ho; subst o.
    exists o0. split; [reflexivity|rewrite <- (proj1 (Hf o0)); exact Hop].
  - intros s p op t Hne E i o Ho Hop. destruct (wr_inv _ _ _ _ E) as (-> & _).
    cbn [p_tree with_tree] in Ho. rewrite get_tset in Ho. destruct (N.eqb_spec i p) as [->|_]; [|eauto].
    destruct (TreeSpec.get (p_tree s) p) as [o0|] eqn:E0; cbn [option_map] in Ho; [|discriminate]. inversion Ho; subst o. contradiction.
  - intros s t Hp i o Ho Hop. cbn [p_tree with_tree] in Ho.
    destruct (pframe_inv _ _ _ _ Hp Ho) as (o0 & Ho0 & E0 & _). exists o0. split; [exact Ho0|congruence].
  - intros op Hin ->. exact (HX Hin).
Qed.
