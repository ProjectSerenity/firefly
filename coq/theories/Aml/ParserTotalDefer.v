(** parseDeferredBlocks - the deferred blocks are parsed in parseModeAllBlocks, where every argument is parsed,
    term lists in line, names are resolved while parsing and a resolved Method makes the parser read its argument count from the
    Method object.  Never a panic; the tree relation and the invariants hold again.
    Names: [D_f fuel] is the specification of function f at that fuel (D_next, D_objargs, D_args, D_arg, D_strict, D_target,
    D_termlist, D_callargs, D_name); [step_Df] derives [D_f (S fuel)] from the specifications at [fuel] (files ParserTotalDeferX / O / G /
    A / S / N); [Dall_all] (ParserTotalDeferW.v) is the induction over the fuel. *)
From Coq Require Import NArith Arith List Bool Lia.
From Coq Require Import ZifyBool ZifyN ZifyNat.
From FF Require Import Lib.Word Gen.Consts_device_acpi_aml Gen.Consts_aml_tree Aml.Stream Aml.Lex Aml.LexProofs
  Aml.Tree Aml.Parser Aml.ParserProofs Aml.TreeSpec Aml.TreeProofs Aml.TreeProofsOps Aml.TreeProofsFind Aml.TreeProofsAnc
  Aml.ParserTotalTree Aml.ParserTotalTree2 Aml.ParserTotalLex Aml.ParserTotalTable Aml.ParserTotalBase Aml.ParserTotalLeaf
  Aml.ParserTotalFrame Aml.ParserTotalLeaf2 Aml.ParserTotalFirst Aml.ParserTotalConn.
Import ListNotations.
Local Open Scope N_scope.

Notation FD := (FIm true).

(** ---- facts about the opcode table ---- *)
Definition unpaid (ty : N) : bool := (ty =? aml_pArgTypeTermList) || (ty =? aml_pArgTypeByteList).

Definition row_unpaid_check (row : list N) : bool :=
  match row with
  | [op; fl; af] => forallb (fun j => negb (unpaid (argType af j)) || (argCount af <=? j + 1)) idx8
  | _ => true
  end.
Lemma rows_unpaid_ok : forallb row_unpaid_check aml_opcodeTable = true.
Proof. vm_compute. reflexivity. Qed.

(** a TermList / ByteList argument is the last argument of its row *)
Lemma unpaid_last ii op fl af j : opInfo ii = Some (op, fl, af) -> j < 8 -> unpaid (argType af j) = true -> argCount af <= j + 1.
Proof.
  intros Hi Hj Hu. pose proof (proj1 (forallb_forall _ _) rows_unpaid_ok _ (opInfo_In _ _ _ _ Hi)) as H.
  cbn [row_unpaid_check] in H. pose proof (proj1 (forallb_forall _ _) H j (In_idx8 j Hj)) as H'. cbv beta in H'.
  rewrite Hu in H'. cbn [negb orb] in H'. apply N.leb_le in H'. exact H'.
Qed.

Definition strict_cond (op : N) : bool := isType2 op || isDataObject op || isArg op.
Definition strict_check (op : N) : bool :=
  negb (strict_cond op) ||
  (negb (op =? aml_pOpMethod) &&
   match opcodeTableIndex op true with
   | Some i => match opInfo i with Some (_, _, af) => no_fieldlist af | None => false end
   | None => false
   end).
Lemma strict_ok : forallb strict_check ops511 = true.
Proof. vm_compute. reflexivity. Qed.

(** the operators a strict term argument may start with take no FieldList and are not Method *)
Lemma strict_facts op i o fl af :
  op <= 0x1fe -> strict_cond op = true -> opcodeTableIndex op true = Some i -> opInfo i = Some (o, fl, af) ->
  op <> aml_pOpMethod /\ forall k, k < 8 -> argType af k <> aml_pArgTypeFieldList.
Proof.
  intros Hop Hc Hi Hr. pose proof (proj1 (forallb_forall _ _) strict_ok op (In_ops511 op Hop)) as H.
  unfold strict_check in H. rewrite Hc, Hi, Hr in H. cbn [negb orb] in H. apply andb_prop in H. destruct H as (H1 & H2).
  split; [apply negb_true_iff in H1; apply N.eqb_neq in H1; exact H1|].
  intros k Hk E. pose proof (proj1 (forallb_forall _ _) H2 k (In_idx8 k Hk)) as H'. cbv beta in H'.
  rewrite E, N.eqb_refl in H'. discriminate.
Qed.

Definition methodIdx : N := 13.
Definition methodAF : N := 17107215.
Lemma method_row : opcodeTableIndex aml_pOpMethod true = Some methodIdx /\ opInfo methodIdx = Some (aml_pOpMethod, 33, methodAF) /\
  argCount methodAF = 4 /\ argType methodAF 0 = aml_pArgTypePkgLen /\ argType methodAF 1 = aml_pArgTypeNameString /\
  argType methodAF 2 = aml_pArgTypeByteData /\ argType methodAF 3 = aml_pArgTypeTermList.
Proof. vm_compute. repeat split; reflexivity. Qed.

Lemma byteprefix_row : exists i fl af, opcodeTableIndex aml_pOpBytePrefix true = Some i /\ opInfo i = Some (aml_pOpBytePrefix, fl, af) /\
  hasFlag fl aml_pOpFlagDeferParsing = false /\ no_fieldlist af = true.
Proof. exists 4, 2, 5. vm_compute. repeat split; reflexivity. Qed.

Lemma no_fieldlist_sound af : no_fieldlist af = true -> forall k, k < 8 -> argType af k <> aml_pArgTypeFieldList.
Proof.
  intros H k Hk E. pose proof (proj1 (forallb_forall _ _) H k (In_idx8 k Hk)) as H'. cbv beta in H'. rewrite E, N.eqb_refl in H'. discriminate.
Qed.

Lemma glive_append g o a x : glive (astep g (OpAppend o a)) x <-> glive g x.
Proof. cbn [astep]. unfold glive. rewrite set_kids_len, set_kids_free. tauto. Qed.

Lemma glive_detach g o a x : glive (astep g (OpDetach o a)) x <-> glive g x.
Proof. cbn [astep]. unfold glive. rewrite set_kids_len, set_kids_free. tauto. Qed.

(** ---- the whole-parser invariant of ParserProofs rides along: a bind rule that regenerates it ---- *)
Section Defer.
Variable tbls : list (list N).
Notation IV := (Inv tbls).
Notation hoareT m := (hoare tbls m (fun _ => True)).

Lemma wp_bind_hoare {A B} P (m : M A) (f : A -> M B) s (Q : B -> pstate -> Prop) (Q2 : A -> Prop) :
  IV s -> hoare tbls m Q2 ->
  wp P m s (fun a s1 => IV s1 -> Q2 a -> wp P (f a) s1 Q) -> wp P (bindM m f) s Q.
Proof.
  intros I Hh H. unfold wp, bindM in *. destruct (m s) as [[a s1]| |] eqn:E; auto.
  destruct (Hh s a s1 I E) as (I1 & Q2a). apply H; auto.
Qed.

Lemma wp_bind_inv {A B} P (m : M A) (f : A -> M B) s (Q : B -> pstate -> Prop) :
  IV s -> hoareT m -> wp P m s (fun a s1 => IV s1 -> wp P (f a) s1 Q) -> wp P (bindM m f) s Q.
Proof.
  intros I Hh H. apply (wp_bind_hoare P m f s Q (fun _ => True) I Hh).
  eapply wp_weaken; [exact H|auto|]. intros a s1 K I1 _. apply K. exact I1.
Qed.

Lemma hoare_block fuel :
  hoareT (parseNextObject fuel) /\ (forall c, hoareT (parseObjectArgs fuel c)) /\
  (forall inf c i, hoareT (parseArgs fuel inf c i)) /\ (forall inf c ty, hoareT (parseArg fuel inf c ty)) /\
  hoareT (termList_go fuel) /\ hoareT (parseNamePathOrMethodCall fuel) /\ (forall n, hoareT (callArgs_go fuel n)) /\
  (forall c, hoareT (parseStrictTermArg fuel c)) /\ hoareT (parseTarget fuel).
Proof. exact (block1_all tbls fuel). Qed.


(** ---- measures, frame, invariants of the mode ---- *)

(** a generous potential: eight objects per byte that is left *)
Definition Psi (s : pstate) : N := lp s + 8 * rem s.
Definition roomD (k : N) (s : pstate) : Prop := Psi s + 6 + k <= InvalidIndex.

Record ExtD (s0 : pstate) (g0 : ghost) (s : pstate) (g : ghost) : Prop := mkExtD {
  xd_g : gext g0 g;
  xd_len : r_len (p_r s) = r_len (p_r s0);
  xd_off : r_offset (p_r s0) <= r_offset (p_r s);
  xd_scopes : exists extra, p_scopeStack s = extra ++ p_scopeStack s0
}.

Lemma ExtD_refl s g : ExtD s g s g.
Proof. constructor; [apply gext_refl|reflexivity|lia|exists []; reflexivity]. Qed.

Lemma ExtD_trans s0 g0 s1 g1 s2 g2 : ExtD s0 g0 s1 g1 -> ExtD s1 g1 s2 g2 -> ExtD s0 g0 s2 g2.
Proof.
  intros [A1 A2 A3 (e1 & A4)] [B1 B2 B3 (e2 & B4)]. constructor; [eapply gext_trans; eauto|congruence|lia|].
  exists (e2 ++ e1). rewrite B4, A4. apply app_assoc.
Qed.

Lemma Ext_ExtD s0 g0 s g : Ext s0 g0 s g -> ExtD s0 g0 s g.
Proof. intros [A1 A2 A3 A4 _ _]. constructor; auto. Qed.

Lemma at_ExtD s s' k c g g' : at_ s s' k c -> gext g g' -> ExtD s g s' g'.
Proof. intros A G. apply Ext_ExtD. eapply at_Ext; eauto. Qed.

Lemma at_Psi s s' k c : at_ s s' k c -> Psi s' + 8 * k <= Psi s + c.
Proof. intros (A1 & A2 & A3 & A4 & A5 & A6). unfold Psi, rem. lia. Qed.

(** Method objects: the second argument is the number that methodArgCountPanic reads; neither of the first two arguments is an
    object whose arguments are parsed later (no Defer flag), so nothing is ever inserted in front of the second *)
Definition nodefer (o : Obj) : Prop :=
  forall op fl af, opInfo (o_infoIndex o) = Some (op, fl, af) ->
    hasFlag fl aml_pOpFlagDeferParsing = false /\ forall k, k < 8 -> argType af k <> aml_pArgTypeFieldList.

(** [mx]: the concrete typing - the first argument is a CHILDLESS pOpIntNamePath object with the name-path row, the second a
    pOpBytePrefix object with its row (so that the last two passes of ParseAML never take the second argument away) *)
Definition mx (g : ghost) (a0 : N) (a0o a1o : Obj) : Prop :=
  o_opcode a0o = aml_pOpIntNamePath /\ o_infoIndex a0o = npIdx /\ kids g a0 = [] /\
  o_opcode a1o = aml_pOpBytePrefix /\ o_infoIndex a1o = bpIdx.

Definition mtyped (s : pstate) (g : ghost) (m : N) : Prop :=
  exists a0 a1 rest a0o a1o v, kids g m = a0 :: a1 :: rest /\
    tget (p_tree s) a0 = Some a0o /\ nodefer a0o /\
    tget (p_tree s) a1 = Some a1o /\ o_value a1o = Some (VNum v) /\ nodefer a1o /\ mx g a0 a0o a1o.

(** [c] does not carry the name-path row (so it is not the first argument of a typed Method) *)
Definition notnp (s : pstate) (c : N) : Prop := forall co, tget (p_tree s) c = Some co -> o_infoIndex co <> npIdx.

Lemma mx_pnv g g' a0 (a0o a0o' a1o a1o' : Obj) : pnv a0o a0o' -> pnv a1o a1o' -> kids g' a0 = kids g a0 -> mx g a0 a0o a1o -> mx g' a0 a0o' a1o'.
Proof.
  intros (A1 & A2 & _) (B1 & B2 & _) Ek (C1 & C2 & C3 & C4 & C5). unfold mx. rewrite A1, A2, B1, B2, Ek. auto.
Qed.

Definition TM (X : N -> Prop) (s : pstate) (g : ghost) : Prop :=
  forall m mo, tget (p_tree s) m = Some mo -> o_opcode mo = aml_pOpMethod -> ~ X m -> mtyped s g m.

Definition NoX : N -> Prop := fun _ => False.

Lemma TM_weaken (X X' : N -> Prop) s g :
  (forall m mo, tget (p_tree s) m = Some mo -> o_opcode mo = aml_pOpMethod -> X m -> X' m) -> TM X s g -> TM X' s g.
Proof. intros Hs H m mo Hm Hop Hx. apply (H m mo Hm Hop). intros F. apply Hx. eapply Hs; eauto. Qed.

Lemma TM_tree_eq X s g s' : TM X s g -> p_tree s' = p_tree s -> TM X s' g.
Proof. intros H E m mo Hm Hop Hx. rewrite E in Hm. destruct (H m mo Hm Hop Hx) as (a0 & a1 & rest & a0o & a1o & v & K).
  exists a0, a1, rest, a0o, a1o, v. rewrite E. exact K. Qed.

Lemma notnp_keep P s g s' c : keep P s g s' -> R (p_tree s) g -> glive g c -> notnp s c -> notnp s' c.
Proof.
  intros K HR Hl Hn co' Hco'. destruct (R_live_glive _ _ HR c) as (_ & Hlv). destruct (Hlv Hl) as (co & Hco & _).
  destruct (K c co Hl Hco) as (co2 & Hco2 & (_ & E2 & _) & _). assert (co2 = co') by congruence. subst. rewrite E2. apply (Hn co Hco).
Qed.

Lemma nodefer_pnv (o o' : Obj) : pnv o o' -> nodefer o -> nodefer o'.
Proof. intros (_ & E & _) H op fl af Hr. rewrite E in Hr. eapply H; eauto. Qed.

Lemma glive_dec g x : glive g x \/ ~ glive g x.
Proof.
  unfold glive. destruct (N.ltb_spec x (N.of_nat (length (g_kids g)))) as [H|H]; [|right; intros (A & _); lia].
  destruct (in_dec N.eq_dec x (g_free g)) as [Hi|Hi]; [right; intros (_ & B); contradiction|left; split; auto].
Qed.

(** one typed Method survives a frame in which its child list keeps its first two elements and these keep their values *)
Lemma mtyped_frame (P XX E : N -> Prop) s g s' g' m :
  gwf g -> Fr P XX E s g s' g' -> glive g m ->
  (E m -> forall a0 a1 rest, kids g m = a0 :: a1 :: rest -> exists rest', kids g' m = a0 :: a1 :: rest') ->
  (E m \/ ~ E m) ->
  (forall i o, P i -> tget (p_tree s) i = Some o -> ~ nodefer o) ->
  (forall i, XX i -> notnp s i) -> (forall y, E y -> kids g y <> []) ->
  mtyped s g m -> mtyped s' g' m.
Proof.
  intros Hwf [K G] Hl HE Hdec HP HXn HEk (a0 & a1 & rest & a0o & a1o & v & Hk & Ha0 & Hn0 & Ha1 & Hv & Hn1 & Hmx).
  assert (Hk' : exists rest', kids g' m = a0 :: a1 :: rest').
  { destruct Hdec as [Em|Em]; [apply (HE Em a0 a1 rest Hk)|].
    destruct (G m Hl Em) as ((extra & Ek) & _). exists (rest ++ extra). rewrite Ek, Hk. reflexivity. }
  destruct Hk' as (rest' & Ek).
  assert (Hl0 : glive g a0) by (apply (Hwf m a0); rewrite Hk; left; reflexivity).
  assert (Hl1 : glive g a1) by (apply (Hwf m a1); rewrite Hk; right; left; reflexivity).
  destruct (K a0 a0o Hl0 Ha0) as (a0o' & Ha0' & E0 & _).
  destruct (K a1 a1o Hl1 Ha1) as (a1o' & Ha1' & E1 & V1).
  exists a0, a1, rest', a0o', a1o', v. split; [exact Ek|].
  split; [exact Ha0'|]. split; [eapply nodefer_pnv; eauto|]. split; [exact Ha1'|].
  split; [rewrite V1; [exact Hv|]; intros F; apply (HP a1 a1o F Ha1); exact Hn1|]. split; [eapply nodefer_pnv; eauto|].
  apply (mx_pnv g g' a0 a0o a0o' a1o a1o' E0 E1); [|exact Hmx].
  destruct Hmx as (_ & M2 & M3 & _).
  destruct (G a0 Hl0) as (_ & Hex); [intros F; apply (HEk a0 F); exact M3|]. apply Hex. intros F. apply (HXn a0 F a0o Ha0). exact M2.
Qed.

(** the Methods that were there stay typed; a Method among the excluded nodes must keep its first two arguments *)
Definition Eok (E : N -> Prop) (s : pstate) (g g' : ghost) : Prop :=
  (forall m, E m \/ ~ E m) /\
  forall m mo, E m -> tget (p_tree s) m = Some mo -> o_opcode mo = aml_pOpMethod ->
    forall a0 a1 rest, kids g m = a0 :: a1 :: rest -> exists rest', kids g' m = a0 :: a1 :: rest'.

Lemma Eok_NoP s g g' : Eok NoP s g g'.
Proof. split; [intros m; right; intros []|intros m mo []]. Qed.

Lemma TM_frame (X P XX E : N -> Prop) s g s' g' :
  gwf g -> R (p_tree s) g -> TM X s g -> Fr P XX E s g s' g' ->
  (forall i o, P i -> tget (p_tree s) i = Some o -> ~ nodefer o) ->
  Eok E s g g' ->
  (forall i, XX i -> notnp s i) -> (forall y, E y -> kids g y <> []) ->
  TM (fun m => X m \/ ~ glive g m) s' g'.
Proof.
  intros Hwf HR H F HP (Hdec & HE) HXn HEk m mo' Hm' Hop Hx.
  assert (Hl : glive g m).
  { destruct (glive_dec g m) as [Hl|Hl]; [exact Hl|]. exfalso. apply Hx. right. exact Hl. }
  destruct (R_live_glive _ _ HR m) as (_ & Hlv). destruct (Hlv Hl) as (mo & Hm & Hlm).
  destruct (fr_keep _ _ _ _ _ _ _ F m mo Hl Hm) as (mo2 & Hm2 & E2 & _).
  assert (mo2 = mo') by congruence. subst mo2. destruct E2 as (E2 & _).
  assert (Hop0 : o_opcode mo = aml_pOpMethod) by congruence.
  eapply mtyped_frame; [exact Hwf|exact F|exact Hl| |apply Hdec|exact HP|exact HXn|exact HEk|].
  - intros F'. exact (HE m mo F' Hm Hop0).
  - apply (H m mo Hm Hop0). intros F'. apply Hx. left. exact F'.
Qed.

(** the general step: old Methods by the frame, new ones by hand *)
Lemma TM_frame2 (X X' P XX E : N -> Prop) s g s' g' :
  gwf g -> R (p_tree s) g -> TM X s g -> Fr P XX E s g s' g' ->
  (forall i o, P i -> tget (p_tree s) i = Some o -> ~ nodefer o) ->
  Eok E s g g' ->
  (forall i, XX i -> notnp s i) -> (forall y, E y -> kids g y <> []) ->
  (forall m mo, tget (p_tree s') m = Some mo -> o_opcode mo = aml_pOpMethod -> glive g m -> X m -> X' m) ->
  (forall m mo, tget (p_tree s') m = Some mo -> o_opcode mo = aml_pOpMethod -> ~ glive g m -> X' m \/ mtyped s' g' m) ->
  TM X' s' g'.
Proof.
  intros Hwf HR H F HP HE HXn HEk Hold Hnew m mo' Hm' Hop Hx'.
  destruct (glive_dec g m) as [Hl|Hl].
  - pose proof (TM_frame X P XX E s g s' g' Hwf HR H F HP HE HXn HEk) as H'.
    apply (H' m mo' Hm' Hop). intros [Fx|Fx]; [apply Hx'; eapply Hold; eauto|contradiction].
  - destruct (Hnew m mo' Hm' Hop Hl) as [Fx|Ht]; [contradiction|exact Ht].
Qed.

(** ---- the specifications of the nine functions in parseModeAllBlocks ---- *)
Definition hasfl (s : pstate) (c : N) : Prop :=
  exists co op fl af, tget (p_tree s) c = Some co /\ opInfo (o_infoIndex co) = Some (op, fl, af) /\ has_fl af.

(** the argument types whose parsing looks no name up *)
Definition nolook (ty : N) : bool :=
  (ty =? aml_pArgTypeByteData) || (ty =? aml_pArgTypeWordData) || (ty =? aml_pArgTypeDwordData) || (ty =? aml_pArgTypeQwordData) ||
  (ty =? aml_pArgTypeString) || (ty =? aml_pArgTypeNameString) || (ty =? aml_pArgTypeByteList) || (ty =? aml_pArgTypePkgLen) ||
  (ty =? aml_pArgTypeFieldList).

Definition cntu (af i : N) : N := if existsb (fun j => (i <=? j) && unpaid (argType af j)) idx8 then 1 else 0.
Definition ucost (ty : N) : N := if unpaid ty then 1 else 0.

(** a Method object whose arguments are being parsed: before its second argument is there its row is the Method row *)
Definition bstate (s : pstate) (g : ghost) (c : N) (i : N) : Prop :=
  (i <= 1 /\ kids g c = []) \/
  (i = 2 /\ exists a0 a0o, kids g c = [a0] /\ tget (p_tree s) a0 = Some a0o /\ nodefer a0o /\
            o_opcode a0o = aml_pOpIntNamePath /\ o_infoIndex a0o = npIdx /\ kids g a0 = []).
Definition mbA (s : pstate) (g : ghost) (c : N) (af i : N) : Prop :=
  forall co, tget (p_tree s) c = Some co -> o_opcode co = aml_pOpMethod -> mtyped s g c \/ (af = methodAF /\ bstate s g c i).
Definition mbO (s : pstate) (g : ghost) (c : N) : Prop :=
  forall co, tget (p_tree s) c = Some co -> o_opcode co = aml_pOpMethod -> mtyped s g c \/ (o_infoIndex co = methodIdx /\ kids g c = []).

(** where the NamedFields of a field list go: right after the object, in its parent's list *)
Definition finsert (s' : pstate) (g g' : ghost) (c : N) : Prop :=
  forall par l1 tl, kids g par = l1 ++ c :: tl -> exists new, kids g' par = l1 ++ c :: new ++ tl /\ sibs g s' g' new.

Definition okres (res : pres) : Prop := res = ROk \/ res = RShort.

Definition D_name (fuel : nat) : Prop := forall s g top rest,
  FD s g -> IV s -> glive g 0 -> p_scopeStack s = top :: rest -> roomD 0 s -> TM NoX s g -> notnp s top ->
  wp True (parseNamePathOrMethodCall fuel) s (fun res s' => exists g',
    FD s' g' /\ ExtD s g s' g' /\ Fr NoP (eq top) NoP s g s' g' /\ Psi s' <= Psi s + 1 /\ res <> RShort /\
    (res = ROk -> Psi s' + 4 <= Psi s /\ TM NoX s' g' /\ p_scopeStack s' = p_scopeStack s /\
                  exists x, kids g' top = kids g top ++ [x] /\ ~ glive g x)).

Definition D_next (fuel : nat) : Prop := forall s g top rest,
  FD s g -> IV s -> glive g 0 -> p_scopeStack s = top :: rest -> roomD 0 s -> TM NoX s g -> notnp s top ->
  wp True (parseNextObject fuel) s (fun res s' => exists g',
    FD s' g' /\ ExtD s g s' g' /\ Fr NoP (eq top) NoP s g s' g' /\ Psi s' <= Psi s + 1 /\
    (res = ROk -> Psi s' + 4 <= Psi s /\ TM NoX s' g' /\ p_scopeStack s' = p_scopeStack s)).

(** [c] is not the flags argument of a Method (its value may be rewritten) *)
Definition nota1 (s : pstate) (g : ghost) (c : N) : Prop :=
  forall m mo a0 a1 rest, tget (p_tree s) m = Some mo -> o_opcode mo = aml_pOpMethod -> kids g m = a0 :: a1 :: rest -> a1 <> c.

Definition D_objargs (fuel : nat) : Prop := forall curObj s g,
  FD s g -> IV s -> glive g 0 -> glive g curObj -> roomD 1 s -> TM (eq curObj) s g -> mbO s g curObj ->
  (hasfl s curObj -> has_parent g curObj) -> nota1 s g curObj ->
  wp True (parseObjectArgs fuel curObj) s (fun res s' => exists g',
    FD s' g' /\ ExtD s g s' g' /\
    Fr (eq curObj) (eq curObj) (fun y => hasfl s curObj /\ In curObj (kids g y)) s g s' g' /\
    finsert s' g g' curObj /\
    Psi s' <= Psi s + 3 /\ res <> RShort /\
    (res = ROk -> Psi s' <= Psi s + 1 /\ TM NoX s' g' /\ p_scopeStack s' = p_scopeStack s)).

Definition D_args (fuel : nat) : Prop := forall ii op fl af curObj argIndex s g,
  FD s g -> IV s -> glive g 0 -> glive g curObj -> opInfo ii = Some (op, fl, af) -> argIndex <= 8 -> roomD (cntu af argIndex) s ->
  (has_fl af -> has_parent g curObj) ->
  (forall co, tget (p_tree s) curObj = Some co -> o_infoIndex co = ii) ->
  (argIndex < 8 -> argType af argIndex = aml_pArgTypeFieldList -> LastNum s curObj) ->
  TM (eq curObj) s g -> mbA s g curObj af argIndex ->
  wp True (parseArgs fuel (op, fl, af) curObj argIndex) s (fun res s' => exists g',
    FD s' g' /\ ExtD s g s' g' /\
    Fr NoP (eq curObj) (fun y => has_fl af /\ In curObj (kids g y)) s g s' g' /\
    finsert s' g g' curObj /\
    Psi s' <= Psi s + 3 /\
    (okres res -> Psi s' <= Psi s + cntu af argIndex /\ TM NoX s' g' /\ p_scopeStack s' = p_scopeStack s)).

Definition D_arg (fuel : nat) : Prop := forall op fl af curObj argTy s g,
  FD s g -> IV s -> glive g 0 -> glive g curObj -> roomD (ucost argTy) s ->
  (argTy = aml_pArgTypeFieldList -> has_parent g curObj /\ LastNum s curObj /\ hasfl s curObj) ->
  TM (fun m => m = curObj /\ nolook argTy = true) s g -> notnp s curObj ->
  wp True (parseArg fuel (op, fl, af) curObj argTy) s (fun '(a, res) s' => exists g',
    FD s' g' /\ ExtD s g s' g' /\
    Fr NoP (eq curObj) (fun y => argTy = aml_pArgTypeFieldList /\ In curObj (kids g y)) s g s' g' /\
    (okres res -> argTy <> aml_pArgTypeFieldList -> kids g' curObj = kids g curObj) /\
    (argTy = aml_pArgTypeFieldList -> finsert s' g g' curObj) /\
    fresh_root g g' a /\ Psi s' <= Psi s + 2 /\
    (okres res -> Psi s' <= Psi s + ucost argTy /\ p_scopeStack s' = p_scopeStack s /\
                  TM (fun m => m = curObj /\ nolook argTy = true) s' g') /\
    (res = RShort -> argTy = aml_pArgTypeFieldList) /\
    (res = ROk -> argTy = aml_pArgTypeByteData ->
       exists obj po v, a = Some obj /\ tget (p_tree s') obj = Some po /\ o_value po = Some (VNum v) /\ nodefer po /\
                        o_opcode po = aml_pOpBytePrefix /\ o_infoIndex po = bpIdx) /\
    (res = ROk -> argTy = aml_pArgTypeNameString ->
       exists obj po, a = Some obj /\ tget (p_tree s') obj = Some po /\ nodefer po /\
                      o_opcode po = aml_pOpIntNamePath /\ o_infoIndex po = npIdx /\ kids g' obj = []) /\
    (res = ROk -> argTy = aml_pArgTypePkgLen -> a = None) /\
    (res = ROk -> argTy <> aml_pArgTypeFieldList)).

Definition StrictPost (curObj : N) (s : pstate) (g : ghost) : option N * pres -> pstate -> Prop := fun '(a, res) s' => exists g',
  FD s' g' /\ ExtD s g s' g' /\ Fr NoP (eq curObj) NoP s g s' g' /\ fresh_root g g' a /\ Psi s' <= Psi s + 1 /\ res <> RShort /\
  (res = ROk -> Psi s' + 4 <= Psi s /\ TM NoX s' g' /\ p_scopeStack s' = p_scopeStack s /\ kids g' curObj = kids g curObj).

Definition D_strict (fuel : nat) : Prop := forall curObj s g,
  FD s g -> IV s -> glive g 0 -> glive g curObj -> roomD 0 s -> TM NoX s g -> notnp s curObj ->
  wp True (parseStrictTermArg fuel curObj) s (StrictPost curObj s g).

Definition D_target (fuel : nat) : Prop := forall s g,
  FD s g -> IV s -> glive g 0 -> roomD 0 s -> TM NoX s g ->
  wp True (parseTarget fuel) s (fun '(a, res) s' => exists g',
    FD s' g' /\ ExtD s g s' g' /\ Fr NoP NoP NoP s g s' g' /\ fresh_root g g' a /\ Psi s' <= Psi s + 1 /\ res <> RShort /\
    (res = ROk -> Psi s' <= Psi s /\ TM NoX s' g' /\ p_scopeStack s' = p_scopeStack s)).

Definition D_termlist (fuel : nat) : Prop := forall s g top rest,
  FD s g -> IV s -> glive g 0 -> p_scopeStack s = top :: rest -> roomD 0 s -> TM NoX s g -> notnp s top ->
  wp True (termList_go fuel) s (fun ok s' => exists g',
    FD s' g' /\ ExtD s g s' g' /\ Fr NoP (eq top) NoP s g s' g' /\ Psi s' <= Psi s + 1 /\
    (ok = true -> Psi s' <= Psi s /\ TM NoX s' g' /\ p_scopeStack s' = p_scopeStack s)).

Definition D_callargs (fuel : nat) : Prop := forall cnt s g top rest,
  FD s g -> IV s -> glive g 0 -> p_scopeStack s = top :: rest -> roomD 0 s -> TM NoX s g -> notnp s top ->
  wp True (callArgs_go fuel cnt) s (fun ok s' => exists g',
    FD s' g' /\ ExtD s g s' g' /\ Fr NoP (eq top) NoP s g s' g' /\ Psi s' <= Psi s + 1 /\
    (ok = true -> Psi s' <= Psi s /\ TM NoX s' g' /\ p_scopeStack s' = p_scopeStack s)).

(** ---- helpers for the step proofs ---- *)
Lemma Fr_unE (P X E : N -> Prop) s g s' g' :
  Fr P X E s g s' g' -> (forall y, E y \/ ~ E y) ->
  (forall y, glive g y -> E y -> X y /\ exists extra, kids g' y = kids g y ++ extra) ->
  Fr P X NoP s g s' g'.
Proof.
  intros [K G] Hdec HE. constructor; [exact K|]. intros y Hy _.
  destruct (Hdec y) as [Ey|Ey].
  - destruct (HE y Hy Ey) as (Xy & Hex). split; [exact Hex|]. intros F. contradiction.
  - apply (G y Hy Ey).
Qed.

(** an object that has just been appended to [c] is not the flags argument of a Method *)
Lemma nota1_appended s g s4 g4 c p :
  gwf g -> R (p_tree s) g -> R (p_tree s4) g4 -> TM NoX s g -> keep NoP s g s4 -> glive g c -> ~ glive g p ->
  kids g4 c = kids g c ++ [p] -> nota1 s4 g4 p.
Proof.
  intros Hwf HR HR4 HTM K Hlc Hnp Hk4 m mo a0 a1 rest Hm Hmop Hk E. subst a1.
  assert (m = c).
  { eapply (R_parent_unique _ _ HR4); [rewrite Hk; right; left; reflexivity|rewrite Hk4; apply in_or_app; right; left; reflexivity]. }
  subst m. rewrite Hk4 in Hk.
  destruct (R_live_glive _ _ HR c) as (_ & Hlv). destruct (Hlv Hlc) as (co & Hco & _).
  destruct (K c co Hlc Hco) as (co4 & Hco4 & (Eop & _) & _). assert (co4 = mo) by congruence. subst co4.
  assert (Hop0 : o_opcode co = aml_pOpMethod) by congruence.
  destruct (HTM c co Hco Hop0 (fun F => F)) as (b0 & b1 & r & _ & _ & _ & Hkc & _).
  rewrite Hkc in Hk. cbn [app] in Hk. injection Hk as _ E1 _. subst b1.
  apply Hnp. apply (Hwf c p). rewrite Hkc. right. left. reflexivity.
Qed.

Lemma scope_topD s g top rest : FD s g -> p_scopeStack s = top :: rest -> glive g top.
Proof. intros H E. pose proof (fi_scopes _ _ H) as F. rewrite E in F. inversion F; auto. Qed.

Lemma roomD_lp k s : roomD k s -> lp s + 5 < InvalidIndex.
Proof. unfold roomD, Psi. lia. Qed.

Lemma TM_NoX_any (X : N -> Prop) s g : TM NoX s g -> TM X s g.
Proof. apply TM_weaken. intros m mo _ _ []. Qed.

End Defer.

(** discharge [hoare tbls m (fun _ => True)] for the primitives and the functions with a lemma *)
Ltac hsolve tbls :=
  first [ hprim tbls
        | apply hoare_info | apply hoare_tableIndex | apply hoare_objectAt' | apply hoare_appendM | apply hoare_detachM
        | apply hoare_scopeCurrent | apply hoare_parseSimpleArg | apply hoare_parseByteList | apply hoare_parseFieldElements
        | apply hoare_methodArgCountPanic | apply hoare_parseNextObject | apply hoare_parseObjectArgs
        | apply (proj1 (proj2 (proj2 (hoare_block tbls _))))
        | apply (proj1 (proj2 (proj2 (proj2 (hoare_block tbls _)))))
        | apply (proj1 (proj2 (proj2 (proj2 (proj2 (hoare_block tbls _))))))
        | apply (proj1 (proj2 (proj2 (proj2 (proj2 (proj2 (hoare_block tbls _)))))))
        | apply (proj1 (proj2 (proj2 (proj2 (proj2 (proj2 (proj2 (hoare_block tbls _))))))))
        | apply (proj1 (proj2 (proj2 (proj2 (proj2 (proj2 (proj2 (proj2 (hoare_block tbls _)))))))))
        | apply (proj2 (proj2 (proj2 (proj2 (proj2 (proj2 (proj2 (proj2 (hoare_block tbls _))))))))) ].

(** [apply wp_bind], keeping the whole-parser invariant [I] *)
Ltac wbi tbls I := apply (wp_bind_inv tbls _ _ _ _ _ I); [hsolve tbls|].

Ltac wwrfI tbls I H Hl :=
  wbi tbls I; eapply (wrf_step _ _ _ _ _ _ H Hl);
  [ let o := fresh "o" in let Ho := fresh "Ho" in intros o Ho; lk_tac
  | let o := fresh "o" in let Ho := fresh "Ho" in let Hi := fresh "Hi" in intros o Ho Hi; info_tac
  | ].

(** the scope stack after a call that was entered with [c] pushed: [c] is still there, below what an aborted call may have left *)
Lemma stack_after_call (c : N) (st0 extra st : list N) : st = extra ++ c :: st0 ->
  exists x st', st = x :: st' /\ exists e2, st' = e2 ++ st0 /\ (st = c :: st0 -> e2 = []).
Proof.
  intros E. destruct extra as [|e extra'].
  - exists c, st0. split; [exact E|]. exists []. split; [reflexivity|auto].
  - exists e, (extra' ++ c :: st0). split; [exact E|]. exists (extra' ++ [c]). split; [rewrite <- app_assoc; reflexivity|].
    intros E'. exfalso. rewrite E' in E. apply (f_equal (@length N)) in E. rewrite app_length in E. cbn [length] in E. lia.
Qed.

Section NewObj.
Variable tbls : list (list N).
Notation IV := (Inv tbls).

Lemma new_off_step {A} (X : N -> Prop) op off k (m : N -> M A) s g s1 (Q : A -> pstate -> Prop) :
  FD s1 g -> IV s1 -> Fr NoP X NoP s g s1 g -> at_ s s1 k 0 -> newok op -> lp s1 + 1 < InvalidIndex ->
  (forall p t2 g2 po, let s3 := with_tree s1 (tset t2 p (set_amlOffset off)) in
     FD s3 g2 -> IV s3 -> gext g g2 -> ~ glive g p -> glive g2 p -> groot g2 p -> kids g2 p = [] ->
     (forall y, kids g2 y = kids g y) -> (forall x, glive g2 x -> glive g x \/ x = p) ->
     tget t2 p = Some po -> tget (p_tree s3) p = Some (set_amlOffset off po) ->
     o_opcode po = op -> o_value po = None -> opcodeTableIndex op true = Some (o_infoIndex po) ->
     Fr NoP X NoP s g s3 g2 -> at_ s s3 k 1 ->
     wp True (m p) s3 Q) ->
  wp True (mlet p <~ newObj op ;; wrf p (set_amlOffset off) ;;; m p) s1 Q.
Proof.
  intros H1 I1 F1 A1 Hnk Hlp K.
  wbi tbls I1. eapply new_step2; [exact H1|exact Hnk|exact Hlp|].
  intros p t2 g2 po H2 Hext2 Hfresh2 Hlive2 Hroot2 Hkids2 Hpo Hpop Hpval Hpidx Hl2 Hfw2 Hks2 Hlv2 I2.
  assert (F2 : Fr NoP X NoP s g (with_tree s1 t2) g2) by (apply (Fr_new NoP X NoP s g s1 g t2 g2 p F1 (fun x Hx => Hx) Hfresh2 Hfw2 Hks2)).
  assert (A2 : at_ s (with_tree s1 t2) k 1) by (eapply at_new'; [exact A1|exact Hl2|reflexivity]).
  wwrfI tbls I2 H2 Hlive2. intros o3 Hg3 Hlo3 H3 I3.
  apply (K p t2 g2 po H3 I3 Hext2 Hfresh2 Hlive2 Hroot2 Hkids2 Hks2 Hlv2 Hpo).
  - pcbn. rewrite get_tset, N.eqb_refl, Hpo. reflexivity.
  - exact Hpop.
  - exact Hpval.
  - exact Hpidx.
  - apply (Fr_tset_fresh NoP X NoP s g (with_tree s1 t2) g2 p (set_amlOffset off) F2 Hfresh2).
  - apply (at_tset s (with_tree s1 t2) k 1 p (set_amlOffset off) A2).
Qed.
Lemma append_new_step c p po3 k s g s3 g2 (Q : unit -> pstate -> Prop) :
  R (p_tree s) g -> TM NoX s g -> notnp s c -> glive g c -> glive g 0 ->
  FD s3 g2 -> gext g g2 -> ~ glive g p -> glive g2 p -> groot g2 p -> kids g2 p = [] ->
  (forall y, kids g2 y = kids g y) -> (forall x, glive g2 x -> glive g x \/ x = p) ->
  tget (p_tree s3) p = Some po3 -> Fr NoP (eq c) NoP s g s3 g2 -> at_ s s3 k 1 ->
  (forall t4, let g4 := astep g2 (OpAppend c p) in let s4 := with_tree s3 t4 in
     FD s4 g4 -> gext g g4 -> pframe (p_tree s3) t4 -> Fr NoP (eq c) NoP s g s4 g4 -> at_ s s4 k 1 ->
     kids g4 c = kids g c ++ [p] -> kids g4 p = [] -> glive g4 p -> glive g4 0 -> p <> c ->
     (exists po4, tget (p_tree s4) p = Some po4 /\ o_opcode po4 = o_opcode po3 /\ o_infoIndex po4 = o_infoIndex po3) ->
     TM (eq p) s4 g4 -> nota1 s4 g4 p ->
     Q tt s4) ->
  wp True (appendM (Some c) p) s3 Q.
Proof.
  intros HR HTM Hnnp Hlc H0 H3 Hext2 Hfresh2 Hlive2 Hroot2 Hkids2 Hks2 Hlv2 Hp3 F3 A3 K.
  pose proof (R_gwf _ _ HR) as Hwf.
  eapply (append_step _ c p s3 g2 g); [exact H3|exact Hwf|exact Hext2|exact Hlc|exact Hfresh2|exact Hlive2|exact Hroot2|].
  intros t4 H4 Hext4 Hpf4 Hk4 Hk4'.
  set (g4 := astep g2 (OpAppend c p)) in *. set (s4 := with_tree s3 t4) in *.
  assert (F4 : Fr NoP (eq c) NoP s g s4 g4).
  { apply (Fr_append NoP (eq c) NoP s g s3 g2 t4 g4 c p F3 Hpf4 Hk4 Hk4'). intros _. left. reflexivity. }
  assert (Hkc4 : kids g4 c = kids g c ++ [p]) by (rewrite Hk4, Hks2; reflexivity).
  assert (Hpc : p <> c) by (intros E; apply Hfresh2; rewrite E; exact Hlc).
  apply (K t4); auto.
  - apply at_pframe; [exact A3|exact Hpf4].
  - rewrite (Hk4' p Hpc). exact Hkids2.
  - apply glive_append. exact Hlive2.
  - apply glive_append. apply (ge_live _ _ Hext2). exact H0.
  - destruct (proj2 Hpf4 _ _ Hp3) as (po4 & Hpo4 & E4 & E4' & _). exists po4. auto.
  - eapply (TM_frame2 NoX (eq p) NoP (eq c) NoP s g s4 g4 Hwf HR HTM F4); try (intros; contradiction); try apply Eok_NoP; [intros i <-; exact Hnnp|].
    intros m mo Hm Hmop Hnl. left.
    assert (Hl4m : glive g4 m) by (apply (R_live_glive _ _ (fi_R _ _ H4)); exists mo; split; [exact Hm|rewrite Hmop; discriminate]).
    apply glive_append in Hl4m. destruct (Hlv2 m Hl4m) as [F|F]; [contradiction|symmetry; exact F].
  - apply (nota1_appended s g s4 g4 c p Hwf HR (fi_R _ _ H4) HTM (fr_keep _ _ _ _ _ _ _ F4) Hlc Hfresh2 Hkc4).
Qed.
End NewObj.
