(** The walk of parseDeferredBlocks over the whole tree never panics and preserves R.  A pending BankField
    (the only Defer row with a FieldList) inserts its NamedFields into the list the walk is iterating: they are new,
    childless and not pending, so the walk steps over them. *)
From Coq Require Import NArith Arith List Bool Lia.
From Coq Require Import ZifyBool ZifyN ZifyNat.
From FF Require Import Lib.Word Gen.Consts_device_acpi_aml Gen.Consts_aml_tree Aml.Stream Aml.Lex Aml.LexProofs
  Aml.Tree Aml.Parser Aml.ParserProofs Aml.TreeSpec Aml.TreeProofs Aml.TreeProofsOps Aml.TreeProofsFind Aml.TreeProofsAnc
  Aml.ParserTotalTree Aml.ParserTotalTree2 Aml.ParserTotalLex Aml.ParserTotalTable Aml.ParserTotalBase Aml.ParserTotalLeaf
  Aml.ParserTotalFrame Aml.ParserTotalLeaf2 Aml.ParserTotalFirst Aml.ParserTotalConn Aml.ParserTotalReloc Aml.ParserTotalDefer
  Aml.ParserTotalMerge Aml.ParserTotalNonNamed Aml.ParserTotalCalls Aml.ParserTotalDeferS Aml.ParserTotalDeferW Aml.ParserTotalDeferM.
Import ListNotations.
Local Open Scope N_scope.

(** the test of parseDeferredBlocks: the row of the object has the Defer flag and the object belongs to the table being parsed *)
Definition isflag (s : pstate) (x : N) : bool :=
  match tget (p_tree s) x with
  | Some o => match opInfo (o_infoIndex o) with
              | Some (_, fl, _) => hasFlag fl aml_pOpFlagDeferParsing && (o_tableHandle o =? p_handle s)
              | None => false
              end
  | None => false
  end.

(** [dcnt s g x n]: the walk from [x] meets [n] pending deferred objects (it does not descend below them); one with a
    field list (BankField) has a parent; none is a pOpIntNamePathOrMethodCall object *)
Inductive dcnt (s : pstate) (g : ghost) : N -> N -> Prop :=
| dc_flag x : glive g x -> isflag s x = true -> (hasfl s x -> has_parent g x) ->
    (forall o, tget (p_tree s) x = Some o -> o_opcode o <> aml_pOpIntNamePathOrMethodCall) -> dcnt s g x 1
| dc_node x n : glive g x -> isflag s x = false -> dcl s g (kids g x) n -> dcnt s g x n
with dcl (s : pstate) (g : ghost) : list N -> N -> Prop :=
| dcl_nil : dcl s g [] 0
| dcl_cons c l n m : dcnt s g c n -> dcl s g l m -> dcl s g (c :: l) (n + m).

Scheme dcnt_mut := Minimality for dcnt Sort Prop
  with dcl_mut := Minimality for dcl Sort Prop.
Combined Scheme dcnt_dcl_ind from dcnt_mut, dcl_mut.

Lemma dcnt_live s g x n : dcnt s g x n -> glive g x.
Proof. intros H. inversion H; auto. Qed.

(** objects that cost the walk nothing: childless and not pending (the NamedFields a BankField block inserts next to it) *)
Definition zero (s : pstate) (g : ghost) (x : N) : Prop := glive g x /\ kids g x = [] /\ isflag s x = false.

Lemma zero_dcnt s g x : zero s g x -> dcnt s g x 0.
Proof. intros (A & B & C). apply dc_node; auto. rewrite B. apply dcl_nil. Qed.

Lemma nfrow_unflagged s x : nfrow s x -> isflag s x = false.
Proof.
  intros (o & Ho & Hrow). unfold isflag. rewrite Ho.
  destruct (opcodeTableIndex aml_pOpIntNamedField true) as [k|] eqn:Ek; [|discriminate]. injection Hrow as Hrow. rewrite <- Hrow.
  vm_compute in Ek. injection Ek as Ek. subst k.
  match goal with |- match opInfo ?k with _ => _ end = _ => destruct (opInfo k) as [[[op fl] af]|] eqn:E; [|reflexivity] end.
  vm_compute in E. injection E as _ Efl _.
  assert (Hf : hasFlag fl aml_pOpFlagDeferParsing = false) by (subst fl; vm_compute; reflexivity).
  rewrite Hf. reflexivity.
Qed.

(** a list with objects satisfying [Z] inserted *)
Inductive ins (Z : N -> Prop) : list N -> list N -> Prop :=
| ins_nil : ins Z [] []
| ins_keep x l l' : ins Z l l' -> ins Z (x :: l) (x :: l')
| ins_add x l l' : Z x -> ins Z l l' -> ins Z l (x :: l').

Lemma ins_refl Z l : ins Z l l.
Proof. induction l; constructor; auto. Qed.

Lemma ins_mono (Z Z' : N -> Prop) l l' : (forall x, Z x -> Z' x) -> ins Z l l' -> ins Z' l l'.
Proof. intros H I. induction I; constructor; auto. Qed.

Lemma ins_trans Z l1 l2 l3 : ins Z l1 l2 -> ins Z l2 l3 -> ins Z l1 l3.
Proof.
  intros H12 H23. revert l1 H12. induction H23 as [|x l2 l3 H IH|x l2 l3 Hz H IH]; intros l1 H12.
  - exact H12.
  - inversion H12 as [|y k k' Hk|y k k' Hy Hk]; subst.
    + apply ins_keep. apply IH. exact Hk.
    + apply ins_add; [exact Hy|]. apply IH. exact Hk.
  - apply ins_add; [exact Hz|]. apply IH. exact H12.
Qed.

Lemma ins_split Z l l' : ins Z l l' -> forall l1 c l2, l = l1 ++ c :: l2 -> exists l1' l2', l' = l1' ++ c :: l2' /\ ins Z l2 l2'.
Proof.
  induction 1 as [|x l l' H IH|x l l' Hz H IH]; intros l1 c l2 E.
  - destruct l1; discriminate.
  - destruct l1 as [|y l1]; cbn [app] in E; injection E as E1 E2.
    + subst. exists [], l'. split; [reflexivity|exact H].
    + subst. destruct (IH l1 c l2 eq_refl) as (a & b & Ea & Hb). exists (y :: a), b. split; [rewrite Ea; reflexivity|exact Hb].
  - destruct (IH l1 c l2 E) as (a & b & Ea & Hb). exists (x :: a), b. split; [rewrite Ea; reflexivity|exact Hb].
Qed.

Lemma ins_front Z new l : Forall Z new -> ins Z l (new ++ l).
Proof. intros H. induction H; cbn [app]; [apply ins_refl|apply ins_add; auto]. Qed.

Lemma ins_insert Z l1 c new tl : Forall Z new -> ins Z (l1 ++ c :: tl) (l1 ++ c :: new ++ tl).
Proof. intros H. induction l1; cbn [app]; apply ins_keep; [apply ins_front; exact H|exact IHl1]. Qed.

Lemma dcl_ins s g l l' : ins (zero s g) l l' -> forall n, dcl s g l n -> dcl s g l' n.
Proof.
  induction 1 as [|x l l' H IH|x l l' Hz H IH]; intros n Hd.
  - exact Hd.
  - inversion Hd as [|c k n1 m Hc Hr]; subst. apply dcl_cons; [exact Hc|apply IH; exact Hr].
  - change n with (0 + n). apply dcl_cons; [apply zero_dcnt; exact Hz|apply IH; exact Hd].
Qed.

(** what one step of the walk does to the rest of the tree *)
Record wstep (s : pstate) (g : ghost) (s' : pstate) (g' : ghost) : Prop := mkWstep {
  ws_g : gext g g';
  ws_keep : keep (fun _ => True) s g s';
  ws_h : p_handle s' = p_handle s;
  ws_len : r_len (p_r s') = r_len (p_r s);
  ws_typed : typed (p_tree s) -> typed (p_tree s');
  ws_nil : forall y, glive g y -> isflag s y = false -> kids g y = [] -> kids g' y = [];
  ws_kids : forall y, glive g y -> isflag s y = false -> ins (zero s' g') (kids g y) (kids g' y);
  ws_pre : forall y a0 a1 rest, glive g y -> isflag s a0 = false -> isflag s a1 = false ->
    kids g y = a0 :: a1 :: rest -> exists rest', kids g' y = a0 :: a1 :: rest'
}.

Lemma wstep_refl s g : wstep s g s g.
Proof.
  constructor; auto; [apply gext_refl|apply keep_refl|intros; apply ins_refl|].
  intros y a0 a1 rest _ _ _ Hk. exists rest. exact Hk.
Qed.

Lemma isflag_keep P s g s' y : WI s g -> keep P s g s' -> p_handle s' = p_handle s -> glive g y -> isflag s' y = isflag s y.
Proof.
  intros H K Hh Hy. destruct (FI_live_get _ _ _ H Hy) as (o & Ho & _).
  destruct (K y o Hy Ho) as (o' & Ho' & (_ & E2 & E3 & _) & _).
  unfold isflag. rewrite Ho, Ho', E2, E3, Hh. reflexivity.
Qed.

Lemma hasfl_keep P s g s' y : WI s g -> keep P s g s' -> glive g y -> hasfl s' y -> hasfl s y.
Proof.
  intros H K Hy (co & op & fl & af & Hco & Hrow & Hf). destruct (FI_live_get _ _ _ H Hy) as (o & Ho & _).
  destruct (K y o Hy Ho) as (o' & Ho' & (_ & E2 & _) & _). assert (o' = co) by congruence. subst o'.
  exists o, op, fl, af. rewrite <- E2. auto.
Qed.

Lemma zero_step s g s' g' x : WI s g -> wstep s g s' g' -> zero s g x -> zero s' g' x.
Proof.
  intros H [A B C D T E F G] (Hl & Hk & Hf). split; [apply (ge_live _ _ A); exact Hl|]. split; [apply E; auto|].
  rewrite (isflag_keep _ _ _ _ _ H B C Hl). exact Hf.
Qed.

Lemma wstep_trans s g s1 g1 s2 g2 : WI s g -> WI s1 g1 -> wstep s g s1 g1 -> wstep s1 g1 s2 g2 -> wstep s g s2 g2.
Proof.
  intros H H1 S1 S2. pose proof S1 as [A1 B1 C1 D1 T1 E1 F1 G1]. pose proof S2 as [A2 B2 C2 D2 T2 E2 F2 G2]. constructor.
  - eapply gext_trans; eauto.
  - eapply keep_trans; eauto. apply (ge_live _ _ A1).
  - congruence.
  - congruence.
  - auto.
  - intros y Hy Hf Hk. apply E2; [apply (ge_live _ _ A1); exact Hy| |apply E1; auto].
    rewrite (isflag_keep _ _ _ _ _ H B1 C1 Hy). exact Hf.
  - intros y Hy Hf. eapply ins_trans.
    + eapply ins_mono; [|apply (F1 y Hy Hf)]. intros x Hx. eapply zero_step; eauto.
    + apply F2; [apply (ge_live _ _ A1); exact Hy|]. rewrite (isflag_keep _ _ _ _ _ H B1 C1 Hy). exact Hf.
  - intros y a0 a1 rest Hy Hf0 Hf1 Hk.
    pose proof (R_gwf _ _ (fi_R _ _ H)) as Hwf.
    assert (Hl0 : glive g a0) by (apply (Hwf y a0); rewrite Hk; left; reflexivity).
    assert (Hl1 : glive g a1) by (apply (Hwf y a1); rewrite Hk; right; left; reflexivity).
    destruct (G1 y a0 a1 rest Hy Hf0 Hf1 Hk) as (rest1 & Hk1).
    apply (G2 y a0 a1 rest1); [apply (ge_live _ _ A1); exact Hy| | |exact Hk1].
    + rewrite (isflag_keep _ _ _ _ _ H B1 C1 Hl0). exact Hf0.
    + rewrite (isflag_keep _ _ _ _ _ H B1 C1 Hl1). exact Hf1.
Qed.

Lemma dcnt_step s g s' g' : WI s g -> wstep s g s' g' ->
  (forall x n, dcnt s g x n -> dcnt s' g' x n) /\ (forall l n, dcl s g l n -> dcl s' g' l n).
Proof.
  intros H [A B C D T E F G]. apply dcnt_dcl_ind.
  - intros x Hx Hf Hn Hnp. apply dc_flag.
    + apply (ge_live _ _ A). exact Hx.
    + rewrite (isflag_keep _ _ _ _ _ H B C Hx). exact Hf.
    + intros Hfl. eapply has_parent_ext; [exact A|]. apply Hn. eapply hasfl_keep; eauto.
    + intros o' Ho'. destruct (FI_live_get _ _ _ H Hx) as (o & Ho & _).
      destruct (B x o Hx Ho) as (o2 & Ho2 & (Eop & _) & _). assert (o2 = o') by congruence. subst o2.
      rewrite Eop. apply (Hnp o Ho).
  - intros x n Hx Hf _ IH. apply dc_node.
    + apply (ge_live _ _ A). exact Hx.
    + rewrite (isflag_keep _ _ _ _ _ H B C Hx). exact Hf.
    + eapply dcl_ins; [apply (F x Hx Hf)|exact IH].
  - apply dcl_nil.
  - intros c l n m _ IH1 _ IH2. apply dcl_cons; auto.
Qed.

(** links of a live object *)
Lemma WI_first s g x o : WI s g -> tget (p_tree s) x = Some o -> o_opcode o <> opFreed -> o_first o = hd InvalidIndex (kids g x).
Proof. intros H Hg Hl. destruct (R_kids _ _ (fi_R _ _ H) _ _ Hg Hl) as (A & _). exact A. Qed.

Lemma WI_next s g p l1 c l2 : WI s g -> glive g p -> kids g p = l1 ++ c :: l2 ->
  exists o, tget (p_tree s) c = Some o /\ o_next o = hd InvalidIndex l2.
Proof.
  intros H Hl Hk. destruct (FI_live_get _ _ _ H Hl) as (po & Hpo & Hlpo).
  destruct (R_kids _ _ (fi_R _ _ H) _ _ Hpo Hlpo) as (_ & _ & Hch & _). rewrite Hk in Hch.
  destruct (chain_mid _ _ _ _ _ Hch) as (o & Ho & _ & _ & _ & Hnx). exists o. auto.
Qed.

Lemma block_body_hsame pf obj oo : hsame (block_body pf obj oo).
Proof.
  unfold block_body. hsame_unf.
  repeat first [ apply parseObjectArgs_hsame | apply popAll_go_hsame | progress hsame_tac ].
Qed.

Lemma block_body_NN pf obj oo s a s' : block_body pf obj oo s = Ok (a, s') -> NN s s'.
Proof.
  unfold block_body. intros H. apply bindM_ok in H. destruct H as (u & s1 & E1 & H). inversion E1; subst u s1. clear E1.
  assert (Hn : nnp (mlet se <~ Parser.get p_streamEnd ;;
                    setPkgEndM se ;;;
                    setOffsetM (w32 (o_amlOffset oo + 1)) ;;;
                    (if 0xff <? o_opcode oo then readByteM ;;; ret tt else ret tt) ;;;
                    mlet res <~ parseObjectArgs pf obj ;;
                    if negb (pres_eqb res ROk) then ret RFailed else
                    mlet n <~ Parser.get (fun s => S (length (p_pkgEndStack s))) ;; popAll_go n ;;; ret ROk)).
  { nnp_unf. repeat first [ apply parseObjectArgs_nnp | apply popAll_go_nnp | progress nnp_tac ]. }
  destruct (Hn _ _ _ H eq_refl) as (_ & N1). exact N1.
Qed.

Section WalkAll.
Variable tbls : list (list N).
Notation IV := (Inv tbls).

Definition capW (n : N) (s : pstate) : Prop := lp s + n * Cblock s + 4 <= InvalidIndex.

Definition WPost (s : pstate) (g : ghost) (n : N) (res : pres) (s' : pstate) : Prop :=
  exists g', WI s' g' /\ wstep s g s' g' /\ lp s' <= lp s + n * Cblock s /\ (res = ROk -> TM NoX s' g').

Definition DW (fuel : nat) : Prop := forall pf x n s g,
  WI s g -> IV s -> glive g 0 -> TM NoX s g -> dcnt s g x n -> capW n s ->
  wp True (parseDeferredBlocks fuel pf x) s (WPost s g n).

Definition DL (fuel : nat) : Prop := forall pf par l1 l2 n s g,
  WI s g -> IV s -> glive g 0 -> TM NoX s g -> glive g par -> isflag s par = false -> kids g par = l1 ++ l2 ->
  dcl s g l2 n -> capW n s ->
  wp True (deferred_loop fuel pf (hd InvalidIndex l2)) s (WPost s g n).

Lemma step_DW fuel : DL fuel -> DW (S fuel).
Proof.
  intros HL pf x n s g H I0 H0 HTM Hd Hcap. cbn [parseDeferredBlocks].
  pose proof (dcnt_live _ _ _ _ Hd) as Hl.
  apply wp_bind. apply wp_objectAt'; [apply (FI_ObjectAt _ _ _ H Hl)|].
  destruct (FI_live_get _ _ _ H Hl) as (oo & Hoo & Hlo).
  apply wp_bind. apply wp_rdo. exists oo. split; [exact Hoo|].
  pose proof (fi_info _ _ H _ _ Hoo Hlo) as Hinfo.
  destruct (opInfo (o_infoIndex oo)) as [[[op fl] af]|] eqn:Erow; [|contradiction].
  apply wp_bind. eapply wp_info; [exact Erow|]. cbv beta iota.
  apply wp_bind, wp_get.
  assert (Ef : isflag s x = hasFlag fl aml_pOpFlagDeferParsing && (o_tableHandle oo =? p_handle s)).
  { unfold isflag. rewrite Hoo, Erow. reflexivity. }
  rewrite <- Ef. destruct (isflag s x) eqn:Efl.
  - inversion Hd as [x' Hx Hf Hn Hnp|x' n' Hx Hf Hk]; subst; [|congruence].
    symmetry in Ef. apply andb_prop in Ef. destruct Ef as (Ef1 & Ef2).
    assert (HB : wp True (block_body pf x oo) s (fun res s' => exists g',
      WI s' g' /\ gext g g' /\ r_len (p_r s') = r_len (p_r s) /\
      lp s' <= lp s + Cblock s /\ keep (eq x) s g s' /\ (res = ROk -> TM NoX s' g') /\
      Fk (eq x) (fun y => hasfl s x /\ In x (kids g y)) g g' /\ finsert s' g g' x)).
    { apply (block_spec tbls pf x oo s g H I0 H0 Hl Hoo).
      - exists oo, op, fl, af. auto.
      - exact Hn.
      - exact HTM.
      - unfold capW, Cblock in *. lia. }
    eapply wp_weaken; [apply (wp_and_pc _ _ _ _ (fun _ s' => p_handle s' = p_handle s /\ NN s s') HB)|auto|].
    + intros a s' E. split; [apply (block_body_hsame pf x oo s a s' E)|apply (block_body_NN pf x oo s a s' E)].
    + intros res s' ((g' & W' & G & L & P & K & T & F & Fi) & Hh & HNN). exists g'. split; [exact W'|]. split.
      * constructor; auto.
        -- intros i o Hi Ho. destruct (K i o Hi Ho) as (o' & Ho' & E' & _). exists o'. split; [exact Ho'|]. split; [exact E'|]. intros F'. exfalso. apply F'. exact I.
        -- intros Hty i o' Ho' Hlo' Hop'. destruct (HNN i o' Ho' Hop') as (o0 & Ho0 & Hop0).
           assert (Hl0 : o_opcode o0 <> opFreed) by (rewrite Hop0; discriminate).
           assert (Hi : glive g i) by (apply (R_live_glive _ _ (fi_R _ _ H)); exists o0; auto).
           destruct (K i o0 Hi Ho0) as (o2 & Ho2 & _ & Hv). assert (o2 = o') by congruence. subst o2.
           rewrite Hv; [apply (Hty i o0 Ho0 Hl0 Hop0)|]. intros <-. apply (Hnp o0 Ho0). exact Hop0.
        -- intros y Hy Hfy Hky. destruct (F y Hy) as (_ & Hex); [intros (_ & Hin); rewrite Hky in Hin; exact Hin|].
           rewrite Hex; [exact Hky|]. intros <-. congruence.
        -- intros y Hy Hfy. destruct (in_dec N.eq_dec x (kids g y)) as [Hin|Hnin].
           ++ destruct (in_split _ _ Hin) as (l1 & tl & Ek). destruct (Fi y l1 tl Ek) as (new & En & Hs). rewrite Ek, En.
              apply ins_insert. unfold sibs in Hs. rewrite Forall_forall in *. intros z Hz. destruct (Hs z Hz) as (_ & Z1 & Z2 & Z3).
              split; [exact Z1|]. split; [exact Z2|apply nfrow_unflagged; exact Z3].
           ++ destruct (F y Hy) as (_ & Hex); [intros (_ & Hin); contradiction|].
              rewrite Hex; [apply ins_refl|]. intros <-. congruence.
        -- intros y a0 a1 rest Hy Hf0 Hf1 Hky. destruct (in_dec N.eq_dec x (kids g y)) as [Hin|Hnin].
           ++ destruct (in_split _ _ Hin) as (l1 & tl & Ek). destruct (Fi y l1 tl Ek) as (new & En & _). rewrite En.
              rewrite Hky in Ek. destruct l1 as [|b0 [|b1 l1']]; cbn [app] in Ek.
              ** exfalso. injection Ek as E0 _. subst a0. congruence.
              ** exfalso. injection Ek as _ E1 _. subst a1. congruence.
              ** injection Ek as E0 E1 _. subst b0 b1. cbn [app]. eexists. reflexivity.
           ++ destruct (F y Hy) as ((extra & Eex) & _); [intros (_ & Hin); contradiction|].
              rewrite Eex, Hky. cbn [app]. eexists. reflexivity.
      * split; [lia|exact T].
  - inversion Hd as [x' Hx Hf Hn Hnp|x' n' Hx Hf Hk]; subst; [congruence|].
    rewrite (WI_first _ _ _ _ H Hoo Hlo).
    apply (HL pf x [] (kids g x) n s g); auto.
Qed.

Lemma step_DL fuel : DW fuel -> DL fuel -> DL (S fuel).
Proof.
  intros HW HL pf par l1 l2 n s g H I0 H0 HTM Hp Hfp Hk Hd Hcap. cbn [deferred_loop].
  destruct l2 as [|c l2].
  - cbn [hd]. rewrite N.eqb_refl. apply wp_ret. exists g. split; [exact H|]. split; [apply wstep_refl|]. split; [lia|auto].
  - cbn [hd]. inversion Hd as [|c' l' n1 m Hc Hr]; subst.
    pose proof (dcnt_live _ _ _ _ Hc) as Hlc.
    destruct (FI_live_get _ _ _ H Hlc) as (co & Hco & _).
    assert (Hne : (c =? InvalidIndex) = false).
    { apply N.eqb_neq. eapply (R_pos_not_Inv _ _ (fi_R _ _ H)); eauto. }
    rewrite Hne.
    apply (wp_bind_inv tbls _ _ _ _ _ I0); [apply (proj1 (hoare_deferred tbls fuel pf))|].
    eapply wp_weaken; [apply (HW pf c n1 s g H I0 H0 HTM Hc)|auto|].
    + unfold capW in *. nia.
    + intros res s1 (g1 & H1 & S1 & L1 & T1) I1.
      assert (El : Cblock s1 = Cblock s) by (unfold Cblock; rewrite (ws_len _ _ _ _ S1); reflexivity).
      destruct (pres_eqb res ROk) eqn:Er; cbn [negb].
      2:{ apply wp_ret. exists g1. split; [exact H1|]. split; [exact S1|]. split; [nia|intros; discriminate]. }
      assert (res = ROk) by (destruct res; try discriminate; reflexivity). subst res.
      pose proof (ge_live _ _ (ws_g _ _ _ _ S1)) as Hlv.
      apply wp_bind. apply wp_objectAt'; [apply (FI_ObjectAt _ _ _ H1 (Hlv _ Hlc))|].
      assert (Hfp1 : isflag s1 par = false).
      { rewrite (isflag_keep _ _ _ _ _ H (ws_keep _ _ _ _ S1) (ws_h _ _ _ _ S1) Hp). exact Hfp. }
      destruct (ins_split _ _ _ (ws_kids _ _ _ _ S1 par Hp Hfp) l1 c l2 Hk) as (l1' & l2' & Hk1 & Hins).
      destruct (WI_next s1 g1 par l1' c l2' H1 (Hlv _ Hp) Hk1) as (co1 & Hco1 & Hnx).
      apply wp_bind. apply wp_rdf. exists co1. split; [exact Hco1|]. rewrite Hnx.
      destruct (dcnt_step _ _ _ _ H S1) as (_ & Hstep).
      eapply wp_weaken; [apply (HL pf par (l1' ++ [c]) l2' m s1 g1 H1 I1 (Hlv _ H0) (T1 eq_refl) (Hlv _ Hp) Hfp1)|auto|].
      * rewrite Hk1, <- app_assoc. reflexivity.
      * eapply dcl_ins; [exact Hins|]. apply Hstep. exact Hr.
      * unfold capW in *. rewrite El. nia.
      * intros res2 s2 (g2 & H2 & S2 & L2 & T2). exists g2. split; [exact H2|].
        split; [eapply (wstep_trans s g s1 g1 s2 g2); eauto|]. split; [rewrite El in L2; nia|exact T2].
Qed.

Lemma DWL_all : forall fuel, DW fuel /\ DL fuel.
Proof.
  induction fuel as [|fuel (HW & HL)].
  - split; [intros pf x n s g _ _ _ _ _ _|intros pf par l1 l2 n s g _ _ _ _ _ _ _ _ _]; exact I.
  - split; [apply step_DW; exact HL|apply step_DL; auto].
Qed.

(** ---- the rest of ParseAML after the resolve loop: parseDeferredBlocks, resolveMethodCalls, connectNonNamedObjArgs ---- *)
Definition parse_tail (f4 pf f5 f6 : nat) : M bool :=
  mlet r4 <~ parseDeferredBlocks f4 pf 0 ;;
  if negb (pres_eqb r4 ROk) then ret false else
  mlet r5 <~ resolveMethodCalls f5 0 ;;
  if negb (pres_eqb r5 ROk) then ret false else
  mlet r6 <~ connectNonNamedObjArgs f6 0 ;;
  if negb (pres_eqb r6 ROk) then ret false else
  ret true.

Lemma parseAML_body_tail fuel :
  parseAML_body fuel =
  (scopeEnter 0 ;;;
   mlet r1 <~ parseObjectList fuel ;;
   if pres_eqb r1 RFailed then ret false else
   mlet r2 <~ connectNamedObjArgs fuel 0 ;;
   if negb (pres_eqb r2 ROk) then ret false else
   (fun s => Ok (tt, with_counters s 1 (p_mergedScopes s) (p_relocatedObjects s))) ;;;
   mlet r3 <~ resolve_loop fuel fuel ;;
   if negb (pres_eqb r3 ROk) then ret false else parse_tail fuel fuel fuel fuel).
Proof. reflexivity. Qed.

(** the tail with an invariant [K] of the tree that the walk, the moves of attachSiblingsAsArgs and the rewriting of
    name-path-or-method-call objects preserve: when the tail succeeds the root is still a live root, the []byte typing and [K] hold *)
Theorem deferred_tail_post : forall (K : T -> ghost -> Prop), Kmove K -> Kupd K ->
  forall f4 pf f5 f6 n s g,
  R (p_tree s) g -> info_valid (p_tree s) -> rok (p_r s) -> Forall (glive g) (p_scopeStack s) -> IV s ->
  glive g 0 -> groot g 0 -> TM NoX s g -> typed (p_tree s) -> dcnt s g 0 n ->
  lp s + n * (8 * r_len (p_r s) + 3) + 4 <= InvalidIndex ->
  (forall s1 g1, parseDeferredBlocks f4 pf 0 s = Ok (ROk, s1) -> WI s1 g1 -> wstep s g s1 g1 -> TM NoX s1 g1 -> K (p_tree s1) g1) ->
  match parse_tail f4 pf f5 f6 s with
  | Ok (b, s') => exists g', R (p_tree s') g' /\ info_valid (p_tree s') /\ pool_ok (p_tables s') (p_tree s') /\
      (b = true -> glive g' 0 /\ groot g' 0 /\ typed (p_tree s') /\ K (p_tree s') g')
  | Panic => False
  | OutOfFuel => True
  end.
Proof.
  intros K K_move K_upd f4 pf f5 f6 n s g HR Hi Hrk Hsc I0 H0 Hroot HTM Hty Hd Hcap HKw.
  assert (H : WI s g) by (constructor; auto).
  assert (W : wp True (parse_tail f4 pf f5 f6) s (fun b s' => exists g',
            R (p_tree s') g' /\ info_valid (p_tree s') /\ pool_ok (p_tables s') (p_tree s') /\
            (b = true -> glive g' 0 /\ groot g' 0 /\ typed (p_tree s') /\ K (p_tree s') g'))).
  { unfold parse_tail.
    apply (wp_bind_inv tbls _ _ _ _ _ I0); [apply (proj1 (hoare_deferred tbls f4 pf))|].
    eapply wp_weaken; [apply (wp_and_pc _ _ _ _ (fun r4 s1 => parseDeferredBlocks f4 pf 0 s = Ok (r4, s1))
                                (proj1 (DWL_all f4) pf 0 n s g H I0 H0 HTM Hd Hcap))|auto|].
    { intros a s1 E. exact E. }
    intros r4 s1 ((g1 & H1 & S1 & L1 & T1) & Eq4) I1.
    assert (Hp1 : pool_ok (p_tables s1) (p_tree s1)) by (rewrite (inv_tbls _ _ I1); apply (inv_pool _ _ I1)).
    destruct (pres_eqb r4 ROk) eqn:E4; cbn [negb].
    2:{ apply wp_ret. exists g1. split; [apply (fi_R _ _ H1)|]. split; [apply (fi_info _ _ H1)|]. split; [exact Hp1|discriminate]. }
    assert (r4 = ROk) by (destruct r4; try discriminate; reflexivity). subst r4.
    pose proof (ws_g _ _ _ _ S1) as G1.
    assert (Hl1 : glive g1 0) by (apply (ge_live _ _ G1); exact H0).
    assert (Hroot1 : groot g1 0) by (eapply groot_ext; eauto).
    assert (TI1 : TI s1 g1) by (constructor; [apply (fi_R _ _ H1)|apply (fi_info _ _ H1)|exact Hp1]).
    assert (HK1 : K (p_tree s1) g1) by (apply (HKw s1 g1 Eq4 H1 S1 (T1 eq_refl))).
    apply wp_bind. eapply wp_weaken; [apply (proj1 (calls_all K K_move K_upd f5) 0 s1 g1 None [] [] TI1 Hl1 (conj Hroot1 eq_refl) (conj (ws_typed _ _ _ _ S1 Hty) (conj Hl1 HK1)))|auto|].
    intros r5 s2 (g2 & m2 & (TI2 & Hrel2 & _ & Hroots2 & _ & Hty2 & _ & HK2) & _ & _).
    destruct (pres_eqb r5 ROk); cbn [negb].
    2:{ apply wp_ret. exists g2. destruct TI2 as [A B C]. split; [exact A|]. split; [exact B|]. split; [exact C|discriminate]. }
    assert (Hl2 : glive g2 0) by (apply (reloc_glive _ _ _ 0 Hrel2); exact Hl1).
    apply wp_bind. eapply wp_weaken; [apply (proj1 (nonNamed_all K K_move f6) 0 s2 g2 None [] [] TI2 Hl2 (conj (Hroots2 0 Hroot1) eq_refl) HK2)|auto|].
    intros r6 s3 (g3 & m3 & (TI3 & Hrel3 & _ & Hroots3 & Hpf3 & HK3) & _ & _).
    destruct (pres_eqb r6 ROk); cbn [negb]; apply wp_ret; exists g3; destruct TI3 as [A B C];
      (split; [exact A|]; split; [exact B|]; split; [exact C|]); [|discriminate].
    intros _. split; [apply (reloc_glive _ _ _ 0 Hrel3); exact Hl2|]. split; [apply Hroots3; apply Hroots2; exact Hroot1|].
    split; [eapply typed_pframe; eauto|exact HK3]. }
  unfold wp in W. destruct (parse_tail f4 pf f5 f6 s) as [[b s']| |]; auto.
Qed.

End WalkAll.

(** ---- the hypotheses are satisfiable: the walk from the root over the tree of DeferW's example (root, pending While) ---- *)
Lemma dex_dcnt : dcnt dex_state dex_ghost 0 1.
Proof.
  destruct dex_hyps as (oo & op & fl & af & A & B & C & D & E & F & G & Hoo & Hrow & Hdf & Hh & Hfl & HTM & _ & _).
  apply dc_node; [exact F|vm_compute; reflexivity|].
  assert (Ek : kids dex_ghost 0 = [1]) by (vm_compute; reflexivity). rewrite Ek.
  change 1 with (1 + 0) at 2. apply dcl_cons; [|apply dcl_nil].
  apply dc_flag; [exact G|vm_compute; reflexivity| |intros o Ho; rewrite Hoo in Ho; inversion Ho; subst o; vm_compute in Hoo; inversion Hoo; subst oo; vm_compute; discriminate].
  intros (co & op' & fl' & af' & Hco & Hr' & k & Hk & Hf). revert Hf.
  assert (co = oo) by congruence. subst co. rewrite Hrow in Hr'. inversion Hr'; subst op' fl' af'. clear Hr' Hco.
  vm_compute in Hoo. inversion Hoo; subst oo. vm_compute in Hrow. inversion Hrow; subst af.
  assert (Hc : k = 0 \/ k = 1 \/ k = 2 \/ k = 3 \/ k = 4 \/ k = 5 \/ k = 6 \/ k = 7) by lia.
  destruct Hc as [->|[->|[->|[->|[->|[->|[->| ->]]]]]]]; vm_compute; discriminate.
Qed.

Lemma dex_typed : typed dex_tree.
Proof.
  unfold typed. apply (pool_cases dex_tree (fun i o => o_opcode o <> opFreed -> o_opcode o = aml_pOpIntNamePathOrMethodCall ->
                                         exists tbl sl, o_value o = Some (VBytes tbl sl))). intros k o Hk _ Hop.
  do 2 (destruct k as [|k]; [vm_compute in Hk; inversion Hk; subst o; vm_compute in Hop; discriminate|]).
  vm_compute in Hk. destruct k; discriminate.
Qed.

Lemma walk_hyps_example :
  exists (s : pstate) (g : ghost) (n : N),
    R (p_tree s) g /\ info_valid (p_tree s) /\ rok (p_r s) /\ Forall (glive g) (p_scopeStack s) /\ Inv (p_tables s) s /\
    glive g 0 /\ TM NoX s g /\ dcnt s g 0 n /\
    lp s + n * (8 * r_len (p_r s) + 3) + 4 <= InvalidIndex /\
    match parseDeferredBlocks 6 400 0 s with Ok (res, s') => res = ROk /\ lp s' = 4 | _ => False end.
Proof.
  destruct dex_hyps as (oo & op & fl & af & A & B & C & D & E & F & G & Hoo & Hrow & Hdf & Hh & Hfl & HTM & _ & _).
  exists dex_state, dex_ghost, 1.
  repeat (split; [assumption|]).
  split.
  { exact dex_dcnt. }
  split; [vm_compute; discriminate|].
  vm_compute. split; reflexivity.
Qed.

(** the hypotheses of the tail theorem are satisfiable by the same state; all three passes return ok *)
Lemma tail_hyps_example :
  exists (s : pstate) (g : ghost) (n : N),
    R (p_tree s) g /\ info_valid (p_tree s) /\ rok (p_r s) /\ Forall (glive g) (p_scopeStack s) /\ Inv (p_tables s) s /\
    glive g 0 /\ groot g 0 /\ TM NoX s g /\ typed (p_tree s) /\ dcnt s g 0 n /\
    lp s + n * (8 * r_len (p_r s) + 3) + 4 <= InvalidIndex /\
    match parse_tail 6 400 10 10 s with Ok (b, s') => b = true /\ lp s' = 4 | _ => False end.
Proof.
  destruct dex_hyps as (oo & op & fl & af & A & B & C & D & E & F & G & Hoo & Hrow & Hdf & Hh & Hfl & HTM & _ & _).
  exists dex_state, dex_ghost, 1.
  split; [exact A|]. split; [exact B|]. split; [exact C|]. split; [exact D|]. split; [exact E|]. split; [exact F|].
  split; [apply groot_chk; vm_compute; reflexivity|]. split; [exact HTM|].
  split.
  { exact dex_typed. }
  split.
  { exact dex_dcnt. }
  split; [vm_compute; discriminate|].
  vm_compute. split; reflexivity.
Qed.

(** ---- the same with a pending BankField: BankField (REG0, BNK0, Zero, 1) { FLD0, 8 } - the block inserts the NamedField FLD0
    behind the BankField into the root's list, and the walk steps over it ---- *)
Definition bex_ops : list op :=
  [ OpNewNamed opScopeBlock 0 (0x5c, 0, 0, 0); OpNew aml_pOpBankField 1; OpAppend 0 1 ].
Definition bex_image : list N :=
  table_image [0x5b; 0x87; 0x10; 0x52; 0x45; 0x47; 0x30; 0x42; 0x4e; 0x4b; 0x30; 0x00; 0x01; 0x46; 0x4c; 0x44; 0x30; 0x08].
Definition bex_tree : T :=
  match run (@NewObjectTree value) bex_ops with
  | Ok t => tset t 1 (set_amlOffset aml_sizeofSDTHeader)
  | _ => NewObjectTree
  end.
Definition bex_ghost : ghost := arun ghost0 bex_ops.
Definition bex_state : pstate := with_scopeStack (init_state bex_tree [] 1 bex_image) [0].

Lemma bex_legal : legal_seq ghost0 bex_ops.
Proof.
  unfold bex_ops. cbn [legal_seq].
  repeat match goal with |- _ /\ _ => split end; cbn [legal]; try exact I;
  try (split; [vm_compute; discriminate | split; [first [left; vm_compute; discriminate | right; vm_compute; reflexivity] | intros _; vm_compute; reflexivity]]).
  split; [split; [vm_compute; reflexivity | vm_compute; intuition discriminate]|].
  split; [split; [vm_compute; reflexivity | vm_compute; intuition discriminate]|].
  split; [apply groot_chk; vm_compute; reflexivity|apply (not_desc_chk _ _ _ [1]); vm_compute; reflexivity].
Qed.

Lemma bex_R : R bex_tree bex_ghost.
Proof.
  destruct (run_R bex_ops (@NewObjectTree value) ghost0 R_empty bex_legal) as (t' & Hrun & HR').
  unfold bex_tree, bex_ghost. rewrite Hrun. apply R_tset_lk; [exact HR'|].
  intros o _. unfold lk_eq, set_amlOffset. cbn. tauto.
Qed.

Lemma tail_bankfield_example :
  exists (s : pstate) (g : ghost) (n : N),
    R (p_tree s) g /\ info_valid (p_tree s) /\ rok (p_r s) /\ Forall (glive g) (p_scopeStack s) /\ Inv (p_tables s) s /\
    glive g 0 /\ groot g 0 /\ TM NoX s g /\ typed (p_tree s) /\ dcnt s g 0 n /\
    (exists x, hasfl s x /\ isflag s x = true /\ In x (kids g 0)) /\
    lp s + n * (8 * r_len (p_r s) + 3) + 4 <= InvalidIndex /\
    match parse_tail 6 400 10 10 s with Ok (b, s') => b = true /\ lp s' = 7 | _ => False end.
Proof.
  assert (Hi : info_valid bex_tree).
  { unfold info_valid. apply (pool_cases bex_tree (fun i o => o_opcode o <> opFreed -> opInfo (o_infoIndex o) <> None)). intros n o Hn.
    do 2 (destruct n as [|n]; [vm_compute in Hn; inversion Hn; subst o; intros _; vm_compute; discriminate|]).
    vm_compute in Hn. destruct n; discriminate. }
  assert (H0 : glive bex_ghost 0) by (split; [vm_compute; reflexivity|vm_compute; intuition discriminate]).
  assert (H1 : glive bex_ghost 1) by (split; [vm_compute; reflexivity|vm_compute; intuition discriminate]).
  assert (Him : image_small bex_image) by (split; [repeat constructor; vm_compute; reflexivity|vm_compute; discriminate]).
  assert (Hcap : N.of_nat (length (t_pool bex_tree)) + 4 * N.of_nat (length bex_image) + 4 <= InvalidIndex) by (vm_compute; discriminate).
  destruct (init_FI bex_tree bex_ghost [] 1 bex_image bex_R Hi H0 Him Hcap) as ([A B C D E] & _).
  fold bex_state in A, B, C, D, E.
  assert (Hfl1 : hasfl bex_state 1).
  { eexists _, _, _, _. split; [vm_compute; reflexivity|]. split; [vm_compute; reflexivity|]. exists 5. split; [reflexivity|vm_compute; reflexivity]. }
  exists bex_state, bex_ghost, 1.
  split; [exact A|]. split; [exact B|]. split; [exact C|]. split; [exact E|].
  split.
  { destruct C as (W & Sm & O). constructor; [reflexivity|exact W| |reflexivity|].
    - unfold no_wrap. unfold small_table in Sm. unfold two32 in *. lia.
    - unfold pool_ok. rewrite Forall_forall. intros o Hin. destruct (In_nth_error _ _ Hin) as (n & Hn).
      do 2 (destruct n as [|n]; [vm_compute in Hn; inversion Hn; subst o; exact I|]). vm_compute in Hn. destruct n; discriminate. }
  split; [exact H0|]. split; [apply groot_chk; vm_compute; reflexivity|].
  split.
  { unfold TM. change (p_tree bex_state) with bex_tree.
    apply (pool_cases bex_tree (fun m mo => o_opcode mo = aml_pOpMethod -> ~ NoX m -> mtyped bex_state bex_ghost m)). intros n o Hn Hop.
    do 2 (destruct n as [|n]; [vm_compute in Hn; inversion Hn; subst o; vm_compute in Hop; discriminate|]).
    vm_compute in Hn. destruct n; discriminate. }
  split.
  { unfold typed. change (p_tree bex_state) with bex_tree.
    apply (pool_cases bex_tree (fun i o => o_opcode o <> opFreed -> o_opcode o = aml_pOpIntNamePathOrMethodCall ->
                                           exists tbl sl, o_value o = Some (VBytes tbl sl))). intros k o Hk _ Hop.
    do 2 (destruct k as [|k]; [vm_compute in Hk; inversion Hk; subst o; vm_compute in Hop; discriminate|]).
    vm_compute in Hk. destruct k; discriminate. }
  assert (Ek : kids bex_ghost 0 = [1]) by (vm_compute; reflexivity).
  split.
  { apply dc_node; [exact H0|vm_compute; reflexivity|]. rewrite Ek.
    change 1 with (1 + 0) at 2. apply dcl_cons; [|apply dcl_nil].
    apply dc_flag; [exact H1|vm_compute; reflexivity| |].
    - intros _. exists 0. rewrite Ek. left. reflexivity.
    - intros o Ho. vm_compute in Ho. inversion Ho; subst o. vm_compute. discriminate. }
  split; [exists 1; split; [exact Hfl1|split; [vm_compute; reflexivity|rewrite Ek; left; reflexivity]]|].
  split; [vm_compute; discriminate|].
  vm_compute. split; reflexivity.
Qed.
