(** C11 (fragment proofs): the tree walks of ParseAML that leave a tree alone.

    For each of mergeScopeDirectives, relocateNamedObjects, parseDeferredBlocks, resolveMethodCalls and
    connectNonNamedObjArgs: if every live object of the pool satisfies a local condition (read off its payload and
    its child list), the walk returns parseResultOk and the parser state is unchanged.  [fwalk f x]: the fuel [f]
    suffices for a walk below [x] (children first to last), [fwalkb] for the walks that go from the last child
    to the first. *)
From Coq Require Import NArith ZArith Arith List Bool Lia.
From Coq Require Import ZifyBool ZifyN ZifyNat.
From FF Require Import Lib.Word Gen.Consts_device_acpi_aml Gen.Consts_aml_tree Aml.Stream Aml.Lex Aml.LexProofs
  Aml.Tree Aml.TreeSpec Aml.TreeProofs Aml.TreeProofsOps Aml.TreeProofsFind Aml.Parser
  Aml.ParserTotalTree Aml.ParserTotalTree2 Aml.ParserTotalLex Aml.ParserTotalTable Aml.ParserTotalBase
  Aml.ParserFragBase Aml.ParserFragFirst Aml.ParserFragConn.
Import ListNotations.
Local Open Scope N_scope.

(** ---- unfolding equations ---- *)
Lemma mergeScopeDirectives_S fuel' objIndex : mergeScopeDirectives (S fuel') objIndex =
  (mlet obj <~ objectAt' objIndex ;;
  mlet firstArgIndex0 <~ rdf obj o_first ;;
  (if objIndex =? 0 then fun s => Ok (tt, with_counters s (p_resolvePasses s) 0 (p_relocatedObjects s)) else ret tt) ;;;
  mlet oo <~ rdo obj ;;
  mlet '(_, flags, _) <~ info (o_infoIndex oo) ;;
  if hasFlag flags aml_pOpFlagExecutable then ret ROk else
  mlet h <~ get p_handle ;;
  mlet r <~ (if (o_opcode oo =? aml_pOpScope) && (o_tableHandle oo =? h) then
          if o_first oo =? InvalidIndex then ret (inl RFailed) else
          mlet nameObj <~ objectAt' (o_first oo) ;;
          mlet no <~ rdo nameObj ;;
          match o_value no with
          | Some (VBytes tbl sl) =>
            mlet targetName <~ bytesOf tbl sl ;;
            mlet targetIndex <~ tq (fun t => Find t (o_parent oo) targetName) ;;
            if targetIndex =? InvalidIndex then
              mlet passes <~ get p_resolvePasses ;;
              mlet reloc <~ get p_relocatedObjects ;;
              if (1 <? passes) && (reloc =? 0) then ret (inl RFailed) else ret (inl RExtra)
            else
              mlet tgt <~ scopeOf targetIndex ;;
              match tgt with
              | None => ret (inl RFailed)
              | Some targetObj =>
                mlet lastIdx <~ rdf obj o_last ;;
                mlet contentsObj <~ objectAt' lastIdx ;;
                mlet firstArgIndex <~ rdf contentsObj o_first ;;
                mlet pf <~ poolFuel ;;
                moveContents_go pf contentsObj targetObj firstArgIndex ;;;
                freeM nameObj ;;;
                freeM contentsObj ;;;
                freeM obj ;;;
                (fun s => Ok (tt, with_counters s (p_resolvePasses s) (w32 (p_mergedScopes s + 1)) (p_relocatedObjects s))) ;;;
                ret (inr firstArgIndex)
              end
          | _ => panic
          end
        else ret (inr firstArgIndex0)) ;;
  match r with
  | inl res => ret res
  | inr firstArgIndex => mergeScope_loop fuel' firstArgIndex ROk
  end).
Proof. reflexivity. Qed.

Lemma mergeScope_loop_S fuel' siblingIndex res : mergeScope_loop (S fuel') siblingIndex res =
  (if siblingIndex =? InvalidIndex then ret res else
  mlet argObj <~ objectAt' siblingIndex ;;
  mlet nx <~ rdf argObj o_next ;;
  mlet ai <~ rdf argObj o_index ;;
  mlet r <~ mergeScopeDirectives fuel' ai ;;
  match r with
  | RFailed => ret RFailed
  | RExtra => mergeScope_loop fuel' nx RExtra
  | _ => mergeScope_loop fuel' nx res
  end).
Proof. reflexivity. Qed.

Lemma relocateNamedObjects_S fuel' objIndex : relocateNamedObjects (S fuel') objIndex =
  (mlet obj <~ objectAt' objIndex ;;
  mlet oo <~ rdo obj ;;
  mlet '(_, flags, _) <~ info (o_infoIndex oo) ;;
  (if objIndex =? 0 then fun s => Ok (tt, with_counters s (p_resolvePasses s) (p_mergedScopes s) 0) else ret tt) ;;;
  if hasFlag flags aml_pOpFlagExecutable then ret ROk else
  mlet h <~ get p_handle ;;
  mlet r <~ (if hasFlag flags aml_pOpFlagNamed && negb (o_first oo =? InvalidIndex) && (o_tableHandle oo =? h) && negb (o_opcode oo =? aml_pOpIntScopeBlock) then
          mlet nameObj <~ objectAt' (o_first oo) ;;
          mlet no <~ rdo nameObj ;;
          match valueBytes no with
          | None => ret (Some RFailed)
          | Some (tbl, sl) =>
            if aml_amlNameLen <? s_len sl then
              let nameIndex := s_len sl - aml_amlNameLen in
              mlet bytes <~ bytesOf tbl sl ;;
              mlet anc <~ tq (fun t => ClosestNamedAncestor t (Some obj)) ;;
              mlet targetIndex <~ tq (fun t => Find t anc (firstn (N.to_nat nameIndex) bytes)) ;;
              if targetIndex =? InvalidIndex then
                mlet passes <~ get p_resolvePasses ;;
                if aml_maxResolvePasses <? passes then ret (Some RFailed) else ret (Some RExtra)
              else
                mlet tgt <~ scopeOf targetIndex ;;
                match tgt with
                | None => ret (Some RFailed)
                | Some targetObj =>
                  mlet pf <~ poolFuel ;;
                  mlet inside <~ insideSelf_go pf (Some targetObj) obj ;;
                  if inside then ret (Some RFailed) else
                  mlet parIdx <~ rdf obj o_parent ;;
                  mlet par <~ objectAt parIdx ;;
                  detachM par (Some obj) ;;;
                  appendM (Some targetObj) obj ;;;
                  mlet fi <~ rdf obj o_first ;;
                  mlet nameObj2 <~ objectAt' fi ;;
                  wrf nameObj2 (set_value (Some (bytesValue tbl (mkSlice (match s_ptr sl with Some p => Some (p + nameIndex) | None => None end) aml_amlNameLen)))) ;;;
                  (fun s => Ok (tt, with_counters s (p_resolvePasses s) (p_mergedScopes s) (w32 (p_relocatedObjects s + 1)))) ;;;
                  ret None
                end
            else ret None
          end
        else ret None) ;;
  match r with
  | Some res => ret res
  | None =>
      mlet first <~ rdf obj o_first ;;
      relocate_loop fuel' first ROk
  end).
Proof. reflexivity. Qed.

Lemma relocate_loop_S fuel' siblingIndex res : relocate_loop (S fuel') siblingIndex res =
  (if siblingIndex =? InvalidIndex then ret res else
  mlet argObj <~ objectAt' siblingIndex ;;
  mlet nx <~ rdf argObj o_next ;;
  mlet ai <~ rdf argObj o_index ;;
  mlet r <~ relocateNamedObjects fuel' ai ;;
  match r with
  | RFailed => ret RFailed
  | RExtra => relocate_loop fuel' nx RExtra
  | _ => relocate_loop fuel' nx res
  end).
Proof. reflexivity. Qed.

Lemma parseDeferredBlocks_S fuel' parseFuel objIndex : parseDeferredBlocks (S fuel') parseFuel objIndex =
  (mlet obj <~ objectAt' objIndex ;;
  mlet oo <~ rdo obj ;;
  mlet '(_, flags, _) <~ info (o_infoIndex oo) ;;
  mlet h <~ get p_handle ;;
  if hasFlag flags aml_pOpFlagDeferParsing && (o_tableHandle oo =? h) then
    (fun s => Ok (tt, with_allBlocks s true)) ;;;
    mlet se <~ get p_streamEnd ;;
    setPkgEndM se ;;;
    setOffsetM (w32 (o_amlOffset oo + 1)) ;;;
    (if 0xff <? o_opcode oo then readByteM ;;; ret tt else ret tt) ;;;
    mlet res <~ parseObjectArgs parseFuel obj ;;
    if negb (pres_eqb res ROk) then ret RFailed else
    mlet n <~ get (fun s => S (length (p_pkgEndStack s))) ;;
    popAll_go n ;;;
    ret ROk
  else
    deferred_loop fuel' parseFuel (o_first oo)).
Proof. reflexivity. Qed.

Lemma deferred_loop_S fuel' parseFuel argIndex : deferred_loop (S fuel') parseFuel argIndex =
  (if argIndex =? InvalidIndex then ret ROk else
  mlet res <~ parseDeferredBlocks fuel' parseFuel argIndex ;;
  if negb (pres_eqb res ROk) then ret RFailed else
  mlet a <~ objectAt' argIndex ;;
  mlet nx <~ rdf a o_next ;;
  deferred_loop fuel' parseFuel nx).
Proof. reflexivity. Qed.

Lemma connectNonNamedObjArgs_S fuel' objIndex : connectNonNamedObjArgs (S fuel') objIndex =
  (mlet obj <~ objectAt' objIndex ;;
  mlet argIndex <~ rdf obj o_last ;;
  connectNonNamed_loop fuel' obj argIndex).
Proof. reflexivity. Qed.

Lemma connectNonNamed_loop_S fuel' obj argIndex : connectNonNamed_loop (S fuel') obj argIndex =
  (if argIndex =? InvalidIndex then ret ROk else
  mlet argObj <~ objectAt' argIndex ;;
  mlet ai <~ rdf argObj o_index ;;
  mlet res <~ connectNonNamedObjArgs fuel' ai ;;
  if negb (pres_eqb res ROk) then ret RFailed else
  mlet r <~ connectNonNamedObjArg fuel' obj argObj ;;
  if pres_eqb r RFailed then ret RFailed else
  mlet prev <~ rdf argObj o_prev ;; connectNonNamed_loop fuel' obj prev).
Proof. reflexivity. Qed.

Lemma resolveMethodCalls_S fuel' objIndex : resolveMethodCalls (S fuel') objIndex =
  (mlet obj <~ objectAt' objIndex ;;
  mlet argIndex <~ rdf obj o_last ;;
  resolveCalls_loop fuel' obj argIndex).
Proof. reflexivity. Qed.

Lemma resolveCalls_loop_S fuel' obj argIndex : resolveCalls_loop (S fuel') obj argIndex =
  (if argIndex =? InvalidIndex then ret ROk else
  mlet argObj <~ objectAt' argIndex ;;
  mlet ai <~ rdf argObj o_index ;;
  mlet res <~ resolveMethodCalls fuel' ai ;;
  if negb (pres_eqb res ROk) then ret RFailed else
  let continue := mlet prev <~ rdf argObj o_prev ;; resolveCalls_loop fuel' obj prev in
  mlet ao <~ rdo argObj ;;
  mlet h <~ get p_handle ;;
  if negb (o_opcode ao =? aml_pOpIntNamePathOrMethodCall) || negb (o_tableHandle ao =? h) then
    (mlet r <~ connectNonNamedObjArg fuel' obj argObj ;;
     if pres_eqb r RFailed then ret RFailed else continue)
  else
  match o_value ao with
  | Some (VBytes tbl sl) =>
    mlet expr <~ bytesOf tbl sl ;;
    mlet targetIndex <~ tq (fun t => Find t (o_parent ao) expr) ;;
    if targetIndex =? InvalidIndex then
      wrf argObj (set_opcode aml_pOpIntNamePath) ;;;
      mlet idx <~ tableIndex aml_pOpIntNamePath true ;;
      wrf argObj (set_infoIndex idx) ;;;
      continue
    else
      mlet resolvedObj <~ objectAt' targetIndex ;;
      mlet ro <~ rdo resolvedObj ;;
      if o_opcode ro =? aml_pOpMethod then
        wrf argObj (set_opcode aml_pOpIntMethodCall) ;;;
        mlet idx <~ tableIndex aml_pOpIntMethodCall true ;;
        wrf argObj (set_infoIndex idx) ;;;
        wrf argObj (set_value (Some (VIdx (o_index ro)))) ;;;
        mlet flagsObj <~ tq (fun t => ArgAt t (Some resolvedObj) 1) ;;
        match flagsObj with
        | None => ret RFailed
        | Some fo =>
          mlet fobj <~ rdo fo ;;
          match o_value fobj with
          | Some (VNum argCnt) =>
            mlet r <~ attachSiblingsAsArgs fuel' obj argObj (N.land argCnt 7) true ;;
            if negb (pres_eqb r ROk) then ret RFailed else continue
          | _ => ret RFailed
          end
        end
      else
        wrf argObj (set_opcode aml_pOpIntResolvedNamePath) ;;;
        mlet idx <~ tableIndex aml_pOpIntResolvedNamePath true ;;
        wrf argObj (set_infoIndex idx) ;;;
        wrf argObj (set_value (Some (VIdx (o_index ro)))) ;;;
        continue
  | _ => panic
  end).
Proof. reflexivity. Qed.

(** ---- fuel ---- *)
Section Walks.
Variable g : ghost.
Variable pl : list pay.

Fixpoint fwalk (f : nat) (x : N) : Prop :=
  match f with O => False | S f' => floop f' (kids g x) end
with floop (f : nat) (l : list N) : Prop :=
  match f with O => False | S f' => match l with [] => True | c :: r => fwalk f' c /\ floop f' r end end.

Fixpoint fwalkb (f : nat) (x : N) : Prop :=
  match f with O => False | S f' => floopb f' (rev (kids g x)) end
with floopb (f : nat) (l : list N) : Prop :=
  match f with O => False | S f' => match l with [] => True | c :: r => fwalkb f' c /\ floopb f' r end end.

(** the children of a live object are live and have payloads *)
Lemma rep_kid_pay (t : T) p c : Rep t g pl -> In c (kids g p) -> exists a, pget pl c = Some a /\ y_op a <> opFreed.
Proof.
  intros H Hin. destruct (R_gwf _ _ (rep_R _ _ _ H) _ _ Hin) as (_ & Hl). apply (rep_glive _ _ _ H). exact Hl.
Qed.

Lemma state_counters_merge s : p_mergedScopes s = 0 -> with_counters s (p_resolvePasses s) 0 (p_relocatedObjects s) = s.
Proof. destruct s. cbn. intros ->. reflexivity. Qed.

Lemma state_counters_reloc s : p_relocatedObjects s = 0 -> with_counters s (p_resolvePasses s) (p_mergedScopes s) 0 = s.
Proof. destruct s. cbn. intros ->. reflexivity. Qed.

(** ---- mergeScopeDirectives ---- *)
Definition merge_ok (h : N) (a : pay) : Prop :=
  exists op flags af, opInfo (y_info a) = Some (op, flags, af) /\
    (hasFlag flags aml_pOpFlagExecutable = true \/ (y_op a =? aml_pOpScope) && (y_th a =? h) = false).

Section Merge.
Variable h : N.
Hypothesis Hall : forall y a, pget pl y = Some a -> y_op a <> opFreed -> merge_ok h a.

Definition MW (f : nat) : Prop := forall x a s, Rep (p_tree s) g pl -> p_handle s = h -> p_mergedScopes s = 0 ->
  pget pl x = Some a -> y_op a <> opFreed -> fwalk f x ->
  wp False (mergeScopeDirectives f x) s (fun r s' => r = ROk /\ s' = s).

Definition ML (f : nat) : Prop := forall p l1 l2 res s, Rep (p_tree s) g pl -> p_handle s = h -> p_mergedScopes s = 0 ->
  kids g p = l1 ++ l2 -> floop f l2 ->
  wp False (mergeScope_loop f (hd InvalidIndex l2) res) s (fun r s' => r = res /\ s' = s).

Lemma merge_walk f : ML f -> MW (S f).
Proof.
  intros IHl x a s H Hh Hm Ha Hl Hf. rewrite mergeScopeDirectives_S.
  apply wp_bind. eapply wp_objectAt_rep; [exact H|exact Ha|exact Hl|].
  apply wp_bind. eapply wp_rdf_rep; [exact H|exact Ha|exact Hl|]. intros o _ _ Hfirst _. rewrite Hfirst.
  apply wp_bind.
  assert (Hreset : wp False (if x =? 0 then fun s0 => Ok (tt, with_counters s0 (p_resolvePasses s0) 0 (p_relocatedObjects s0)) else ret tt) s
                     (fun _ s' => s' = s)).
  { destruct (x =? 0); [unfold wp; apply state_counters_merge; exact Hm|reflexivity]. }
  eapply wp_conseq; [exact Hreset|]. intros _ s' ->.
  apply wp_bind. eapply wp_rdo_rep; [exact H|exact Ha|exact Hl|]. intros oo Hpay _ Hfirst' _.
  destruct (Hall x a Ha Hl) as (op & flags & af & Hrow & Hcond). rewrite (pay_info _ _ Hpay).
  apply wp_bind. eapply wp_info; [exact Hrow|]. cbv beta iota.
  destruct (hasFlag flags aml_pOpFlagExecutable) eqn:Ex; [apply wp_ret; auto|].
  destruct Hcond as [Hc|Hc]; [discriminate|].
  apply wp_bind, wp_get. rewrite (pay_op _ _ Hpay), (pay_th _ _ Hpay), Hh, Hc.
  apply wp_bind. apply wp_ret. cbv iota.
  cbn [fwalk] in Hf. eapply wp_conseq; [apply (IHl x [] (kids g x) ROk s H Hh Hm eq_refl Hf)|]. intros r s' HQ. exact HQ.
Qed.

Lemma merge_loop f : MW f -> ML f -> ML (S f).
Proof.
  intros IHw IHl p l1 l2 res s H Hh Hm Hk Hf. rewrite mergeScope_loop_S.
  destruct l2 as [|c r]; cbn [hd]; [rewrite N.eqb_refl; apply wp_ret; auto|].
  assert (Hin : In c (kids g p)) by (rewrite Hk; apply in_or_app; right; left; reflexivity).
  destruct (rep_kid_pay _ _ _ H Hin) as (ac & Hac & Hlc).
  rewrite (rep_not_Inv _ _ _ _ _ H Hac).
  apply wp_bind. eapply wp_objectAt_rep; [exact H|exact Hac|exact Hlc|].
  apply wp_bind. eapply (wp_rdf_sib False p l1 c r); [exact H|exact Hk|]. intros o _ _ _ Hnext _. rewrite Hnext.
  apply wp_bind. eapply (wp_rdf_sib False p l1 c r); [exact H|exact Hk|]. intros o' Hidx _ _ _ _. rewrite Hidx.
  cbn [floop] in Hf. destruct Hf as [Hfc Hfr].
  apply wp_bind. eapply wp_conseq; [apply (IHw c ac s H Hh Hm Hac Hlc Hfc)|]. intros r0 s' (-> & ->).
  cbv iota. apply (IHl p (l1 ++ [c]) r res s H Hh Hm); [rewrite <- app_assoc; exact Hk|exact Hfr].
Qed.

Lemma merge_all : forall f, MW f /\ ML f.
Proof.
  induction f as [|f (IHw & IHl)].
  - split; intro; intros; cbn in *; contradiction.
  - split; [apply merge_walk; exact IHl|apply merge_loop; assumption].
Qed.
End Merge.

(** ---- relocateNamedObjects ---- *)
Definition reloc_ok (h : N) (y : N) (a : pay) : Prop :=
  exists op flags af, opInfo (y_info a) = Some (op, flags, af) /\
    (hasFlag flags aml_pOpFlagExecutable = true \/
     hasFlag flags aml_pOpFlagNamed && negb (hd InvalidIndex (kids g y) =? InvalidIndex) && (y_th a =? h) && negb (y_op a =? aml_pOpIntScopeBlock) = false \/
     exists p ap tbl sl, hd InvalidIndex (kids g y) = p /\ pget pl p = Some ap /\ y_op ap <> opFreed /\
                         y_val ap = Some (VBytes tbl sl) /\ s_len sl <= aml_amlNameLen).

Section Reloc.
Variable h : N.
Hypothesis Hall : forall y a, pget pl y = Some a -> y_op a <> opFreed -> reloc_ok h y a.

Definition RW (f : nat) : Prop := forall x a s, Rep (p_tree s) g pl -> p_handle s = h -> p_relocatedObjects s = 0 ->
  pget pl x = Some a -> y_op a <> opFreed -> fwalk f x ->
  wp False (relocateNamedObjects f x) s (fun r s' => r = ROk /\ s' = s).

Definition RL (f : nat) : Prop := forall p l1 l2 res s, Rep (p_tree s) g pl -> p_handle s = h -> p_relocatedObjects s = 0 ->
  kids g p = l1 ++ l2 -> floop f l2 ->
  wp False (relocate_loop f (hd InvalidIndex l2) res) s (fun r s' => r = res /\ s' = s).

Lemma reloc_walk f : RL f -> RW (S f).
Proof.
  intros IHl x a s H Hh Hm Ha Hl Hf. rewrite relocateNamedObjects_S.
  apply wp_bind. eapply wp_objectAt_rep; [exact H|exact Ha|exact Hl|].
  apply wp_bind. eapply wp_rdo_rep; [exact H|exact Ha|exact Hl|]. intros oo Hpay _ Hfirst _.
  destruct (Hall x a Ha Hl) as (op & flags & af & Hrow & Hcond). rewrite (pay_info _ _ Hpay).
  apply wp_bind. eapply wp_info; [exact Hrow|]. cbv beta iota.
  apply wp_bind.
  assert (Hreset : wp False (if x =? 0 then fun s0 => Ok (tt, with_counters s0 (p_resolvePasses s0) (p_mergedScopes s0) 0) else ret tt) s
                     (fun _ s' => s' = s)).
  { destruct (x =? 0); [unfold wp; apply state_counters_reloc; exact Hm|reflexivity]. }
  eapply wp_conseq; [exact Hreset|]. intros _ s' ->.
  destruct (hasFlag flags aml_pOpFlagExecutable) eqn:Ex; [apply wp_ret; auto|].
  assert (Hgo : wp False (mlet first <~ rdf x o_first ;; relocate_loop f first ROk) s (fun r s' => r = ROk /\ s' = s)).
  { apply wp_bind. eapply wp_rdf_rep; [exact H|exact Ha|exact Hl|]. intros o _ _ Hf1 _. rewrite Hf1.
    cbn [fwalk] in Hf. apply (IHl x [] (kids g x) ROk s H Hh Hm eq_refl Hf). }
  apply wp_bind, wp_get. rewrite Hfirst, (pay_op _ _ Hpay), (pay_th _ _ Hpay), Hh.
  destruct Hcond as [Hc|[Hc|Hc]]; [discriminate| |].
  - rewrite Hc. apply wp_bind. apply wp_ret. exact Hgo.
  - destruct Hc as (p & ap & tbl & sl & Ep & Hap & Hlp & Hval & Hlen).
    destruct (hasFlag flags aml_pOpFlagNamed && negb (hd InvalidIndex (kids g x) =? InvalidIndex) && (y_th a =? h) && negb (y_op a =? aml_pOpIntScopeBlock)).
    + rewrite Ep. apply wp_bind.
      apply wp_bind. eapply wp_objectAt_rep; [exact H|exact Hap|exact Hlp|].
      apply wp_bind. eapply wp_rdo_rep; [exact H|exact Hap|exact Hlp|]. intros nop Hpayp _ _ _.
      unfold valueBytes. rewrite (pay_val _ _ Hpayp), Hval.
      assert (E : aml_amlNameLen <? s_len sl = false) by (apply N.ltb_ge; exact Hlen). rewrite E.
      apply wp_ret. exact Hgo.
    + apply wp_bind. apply wp_ret. exact Hgo.
Qed.

Lemma reloc_loop f : RW f -> RL f -> RL (S f).
Proof.
  intros IHw IHl p l1 l2 res s H Hh Hm Hk Hf. rewrite relocate_loop_S.
  destruct l2 as [|c r]; cbn [hd]; [rewrite N.eqb_refl; apply wp_ret; auto|].
  assert (Hin : In c (kids g p)) by (rewrite Hk; apply in_or_app; right; left; reflexivity).
  destruct (rep_kid_pay _ _ _ H Hin) as (ac & Hac & Hlc).
  rewrite (rep_not_Inv _ _ _ _ _ H Hac).
  apply wp_bind. eapply wp_objectAt_rep; [exact H|exact Hac|exact Hlc|].
  apply wp_bind. eapply (wp_rdf_sib False p l1 c r); [exact H|exact Hk|]. intros o _ _ _ Hnext _. rewrite Hnext.
  apply wp_bind. eapply (wp_rdf_sib False p l1 c r); [exact H|exact Hk|]. intros o' Hidx _ _ _ _. rewrite Hidx.
  cbn [floop] in Hf. destruct Hf as [Hfc Hfr].
  apply wp_bind. eapply wp_conseq; [apply (IHw c ac s H Hh Hm Hac Hlc Hfc)|]. intros r0 s' (-> & ->).
  cbv iota. apply (IHl p (l1 ++ [c]) r res s H Hh Hm); [rewrite <- app_assoc; exact Hk|exact Hfr].
Qed.

Lemma reloc_all : forall f, RW f /\ RL f.
Proof.
  induction f as [|f (IHw & IHl)].
  - split; intro; intros; cbn in *; contradiction.
  - split; [apply reloc_walk; exact IHl|apply reloc_loop; assumption].
Qed.
End Reloc.

(** ---- parseDeferredBlocks ---- *)
Definition defer_ok (h : N) (a : pay) : Prop :=
  exists op flags af, opInfo (y_info a) = Some (op, flags, af) /\ hasFlag flags aml_pOpFlagDeferParsing && (y_th a =? h) = false.

Section Defer.
Variable h : N.
Hypothesis Hall : forall y a, pget pl y = Some a -> y_op a <> opFreed -> defer_ok h a.

Definition DW (f : nat) : Prop := forall pf x a s, Rep (p_tree s) g pl -> p_handle s = h ->
  pget pl x = Some a -> y_op a <> opFreed -> fwalk f x ->
  wp False (parseDeferredBlocks f pf x) s (fun r s' => r = ROk /\ s' = s).

Definition DL (f : nat) : Prop := forall pf p l1 l2 s, Rep (p_tree s) g pl -> p_handle s = h ->
  kids g p = l1 ++ l2 -> floop f l2 ->
  wp False (deferred_loop f pf (hd InvalidIndex l2)) s (fun r s' => r = ROk /\ s' = s).

Lemma defer_walk f : DL f -> DW (S f).
Proof.
  intros IHl pf x a s H Hh Ha Hl Hf. rewrite parseDeferredBlocks_S.
  apply wp_bind. eapply wp_objectAt_rep; [exact H|exact Ha|exact Hl|].
  apply wp_bind. eapply wp_rdo_rep; [exact H|exact Ha|exact Hl|]. intros oo Hpay _ Hfirst _.
  destruct (Hall x a Ha Hl) as (op & flags & af & Hrow & Hcond). rewrite (pay_info _ _ Hpay).
  apply wp_bind. eapply wp_info; [exact Hrow|]. cbv beta iota.
  apply wp_bind, wp_get. rewrite (pay_th _ _ Hpay), Hh, Hcond, Hfirst.
  cbn [fwalk] in Hf. apply (IHl pf x [] (kids g x) s H Hh eq_refl Hf).
Qed.

Lemma defer_loop f : DW f -> DL f -> DL (S f).
Proof.
  intros IHw IHl pf p l1 l2 s H Hh Hk Hf. rewrite deferred_loop_S.
  destruct l2 as [|c r]; cbn [hd]; [rewrite N.eqb_refl; apply wp_ret; auto|].
  assert (Hin : In c (kids g p)) by (rewrite Hk; apply in_or_app; right; left; reflexivity).
  destruct (rep_kid_pay _ _ _ H Hin) as (ac & Hac & Hlc).
  rewrite (rep_not_Inv _ _ _ _ _ H Hac).
  cbn [floop] in Hf. destruct Hf as [Hfc Hfr].
  apply wp_bind. eapply wp_conseq; [apply (IHw pf c ac s H Hh Hac Hlc Hfc)|]. intros r0 s' (-> & ->).
  change (negb (pres_eqb ROk ROk)) with false. cbv iota.
  apply wp_bind. eapply wp_objectAt_rep; [exact H|exact Hac|exact Hlc|].
  apply wp_bind. eapply (wp_rdf_sib False p l1 c r); [exact H|exact Hk|]. intros o _ _ _ Hnext _. rewrite Hnext.
  apply (IHl pf p (l1 ++ [c]) r s H Hh); [rewrite <- app_assoc; exact Hk|exact Hfr].
Qed.

Lemma defer_all : forall f, DW f /\ DL f.
Proof.
  induction f as [|f (IHw & IHl)].
  - split; intro; intros; cbn in *; contradiction.
  - split; [apply defer_walk; exact IHl|apply defer_loop; assumption].
Qed.
End Defer.

(** ---- connectNonNamedObjArg on an object that needs nothing ---- *)
Definition nonnamed_ok (h : N) (y : N) (a : pay) : Prop :=
  exists op flags af, opInfo (y_info a) = Some (op, flags, af) /\
    (hasFlag flags aml_pOpFlagNamed || negb (y_th a =? h) = true \/
     (argCount af <=? termArgIndex af) || (termArgIndex af <? N.of_nat (length (kids g y))) = true).

Lemma nonnamed_arg h fuel obj y a s (Q : pres -> pstate -> Prop) :
  Rep (p_tree s) g pl -> p_handle s = h -> pget pl y = Some a -> y_op a <> opFreed -> nonnamed_ok h y a -> Q ROk s ->
  wp False (connectNonNamedObjArg fuel obj y) s Q.
Proof.
  intros H Hh Ha Hl (op & flags & af & Hrow & Hcond) K. unfold connectNonNamedObjArg.
  apply wp_bind. eapply wp_rdo_rep; [exact H|exact Ha|exact Hl|]. intros ao Hpay _ _ _.
  rewrite (pay_info _ _ Hpay). apply wp_bind. eapply wp_info; [exact Hrow|]. cbv beta iota.
  apply wp_bind, wp_get. rewrite (pay_th _ _ Hpay), Hh.
  destruct (hasFlag flags aml_pOpFlagNamed || negb (y_th a =? h)) eqn:E1; [apply wp_ret; exact K|].
  destruct Hcond as [Hc|Hc]; [discriminate|].
  assert (Hlive : live (p_tree s) y) by (apply (R_live_glive _ _ (rep_R _ _ _ H)); eapply rep_live; eauto).
  apply wp_bind. eapply wp_tq; [apply (NumArgs_spec _ _ (rep_R _ _ _ H) y Hlive)|].
  rewrite Hc. apply wp_ret. exact K.
Qed.

Lemma last_rev_hd (l : list N) d : last (rev l) d = hd d l.
Proof. destruct l as [|x l]; [reflexivity|]. cbn [rev hd]. apply last_last. Qed.

(** ---- connectNonNamedObjArgs ---- *)
Section NonNamed.
Variable h : N.
Hypothesis Hall : forall y a, pget pl y = Some a -> y_op a <> opFreed -> nonnamed_ok h y a.

Definition NW (f : nat) : Prop := forall x a s, Rep (p_tree s) g pl -> p_handle s = h ->
  pget pl x = Some a -> y_op a <> opFreed -> fwalkb f x ->
  wp False (connectNonNamedObjArgs f x) s (fun r s' => r = ROk /\ s' = s).

Definition NL (f : nat) : Prop := forall p lr l2 s, Rep (p_tree s) g pl -> p_handle s = h ->
  kids g p = rev lr ++ l2 -> floopb f lr ->
  wp False (connectNonNamed_loop f p (hd InvalidIndex lr)) s (fun r s' => r = ROk /\ s' = s).

Lemma nonnamed_walk f : NL f -> NW (S f).
Proof.
  intros IHl x a s H Hh Ha Hl Hf. rewrite connectNonNamedObjArgs_S.
  apply wp_bind. eapply wp_objectAt_rep; [exact H|exact Ha|exact Hl|].
  apply wp_bind. eapply wp_rdf_rep; [exact H|exact Ha|exact Hl|]. intros o _ _ _ Hlast. rewrite Hlast.
  cbn [fwalkb] in Hf. rewrite <- (rev_involutive (kids g x)) at 1. rewrite last_rev_hd.
  apply (IHl x (rev (kids g x)) [] s H Hh); [rewrite rev_involutive, app_nil_r; reflexivity|exact Hf].
Qed.

Lemma nonnamed_loop f : NW f -> NL f -> NL (S f).
Proof.
  intros IHw IHl p lr l2 s H Hh Hk Hf. rewrite connectNonNamed_loop_S.
  destruct lr as [|c r]; cbn [hd]; [rewrite N.eqb_refl; apply wp_ret; auto|].
  cbn [rev] in Hk. rewrite <- app_assoc in Hk. cbn [app] in Hk.
  assert (Hin : In c (kids g p)) by (rewrite Hk; apply in_or_app; right; left; reflexivity).
  destruct (rep_kid_pay _ _ _ H Hin) as (ac & Hac & Hlc).
  rewrite (rep_not_Inv _ _ _ _ _ H Hac).
  apply wp_bind. eapply wp_objectAt_rep; [exact H|exact Hac|exact Hlc|].
  apply wp_bind. eapply (wp_rdf_sib False p (rev r) c l2); [exact H|exact Hk|]. intros o' Hidx _ _ _ _. rewrite Hidx.
  cbn [floopb] in Hf. destruct Hf as [Hfc Hfr].
  apply wp_bind. eapply wp_conseq; [apply (IHw c ac s H Hh Hac Hlc Hfc)|]. intros r0 s' (-> & ->).
  change (negb (pres_eqb ROk ROk)) with false. cbv iota.
  apply wp_bind. eapply (nonnamed_arg h); [exact H|exact Hh|exact Hac|exact Hlc|apply (Hall c ac Hac Hlc)|].
  change (pres_eqb ROk RFailed) with false. cbv iota.
  apply wp_bind. eapply (wp_rdf_sib False p (rev r) c l2); [exact H|exact Hk|]. intros o _ _ Hprev _ _. rewrite Hprev, last_rev_hd.
  apply (IHl p r (c :: l2) s H Hh); [exact Hk|exact Hfr].
Qed.

Lemma nonnamed_all : forall f, NW f /\ NL f.
Proof.
  induction f as [|f (IHw & IHl)].
  - split; intro; intros; cbn in *; contradiction.
  - split; [apply nonnamed_walk; exact IHl|apply nonnamed_loop; assumption].
Qed.
End NonNamed.

(** ---- resolveMethodCalls ---- *)
Definition calls_ok (h : N) (y : N) (a : pay) : Prop :=
  negb (y_op a =? aml_pOpIntNamePathOrMethodCall) || negb (y_th a =? h) = true /\ nonnamed_ok h y a.

Section Calls.
Variable h : N.
Hypothesis Hall : forall y a, pget pl y = Some a -> y_op a <> opFreed -> calls_ok h y a.

Definition CW (f : nat) : Prop := forall x a s, Rep (p_tree s) g pl -> p_handle s = h ->
  pget pl x = Some a -> y_op a <> opFreed -> fwalkb f x ->
  wp False (resolveMethodCalls f x) s (fun r s' => r = ROk /\ s' = s).

Definition CL (f : nat) : Prop := forall p lr l2 s, Rep (p_tree s) g pl -> p_handle s = h ->
  kids g p = rev lr ++ l2 -> floopb f lr ->
  wp False (resolveCalls_loop f p (hd InvalidIndex lr)) s (fun r s' => r = ROk /\ s' = s).

Lemma calls_walk f : CL f -> CW (S f).
Proof.
  intros IHl x a s H Hh Ha Hl Hf. rewrite resolveMethodCalls_S.
  apply wp_bind. eapply wp_objectAt_rep; [exact H|exact Ha|exact Hl|].
  apply wp_bind. eapply wp_rdf_rep; [exact H|exact Ha|exact Hl|]. intros o _ _ _ Hlast. rewrite Hlast.
  cbn [fwalkb] in Hf. rewrite <- (rev_involutive (kids g x)) at 1. rewrite last_rev_hd.
  apply (IHl x (rev (kids g x)) [] s H Hh); [rewrite rev_involutive, app_nil_r; reflexivity|exact Hf].
Qed.

Lemma calls_loop f : CW f -> CL f -> CL (S f).
Proof.
  intros IHw IHl p lr l2 s H Hh Hk Hf. rewrite resolveCalls_loop_S.
  destruct lr as [|c r]; cbn [hd]; [rewrite N.eqb_refl; apply wp_ret; auto|].
  cbn [rev] in Hk. rewrite <- app_assoc in Hk. cbn [app] in Hk.
  assert (Hin : In c (kids g p)) by (rewrite Hk; apply in_or_app; right; left; reflexivity).
  destruct (rep_kid_pay _ _ _ H Hin) as (ac & Hac & Hlc).
  rewrite (rep_not_Inv _ _ _ _ _ H Hac).
  apply wp_bind. eapply wp_objectAt_rep; [exact H|exact Hac|exact Hlc|].
  apply wp_bind. eapply (wp_rdf_sib False p (rev r) c l2); [exact H|exact Hk|]. intros o' Hidx _ _ _ _. rewrite Hidx.
  cbn [floopb] in Hf. destruct Hf as [Hfc Hfr].
  apply wp_bind. eapply wp_conseq; [apply (IHw c ac s H Hh Hac Hlc Hfc)|]. intros r0 s' (-> & ->).
  change (negb (pres_eqb ROk ROk)) with false. cbv iota zeta.
  apply wp_bind. eapply wp_rdo_rep; [exact H|exact Hac|exact Hlc|]. intros ao Hpay _ _ _.
  apply wp_bind, wp_get. destruct (Hall c ac Hac Hlc) as (Hc1 & Hc2).
  rewrite (pay_op _ _ Hpay), (pay_th _ _ Hpay), Hh, Hc1.
  apply wp_bind. eapply (nonnamed_arg h); [exact H|exact Hh|exact Hac|exact Hlc|exact Hc2|].
  change (pres_eqb ROk RFailed) with false. cbv iota.
  apply wp_bind. eapply (wp_rdf_sib False p (rev r) c l2); [exact H|exact Hk|]. intros o _ _ Hprev _ _. rewrite Hprev, last_rev_hd.
  apply (IHl p r (c :: l2) s H Hh); [exact Hk|exact Hfr].
Qed.

Lemma calls_all : forall f, CW f /\ CL f.
Proof.
  induction f as [|f (IHw & IHl)].
  - split; intro; intros; cbn in *; contradiction.
  - split; [apply calls_walk; exact IHl|apply calls_loop; assumption].
Qed.
End Calls.
End Walks.
