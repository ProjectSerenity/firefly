(** C11 (fragment TN, any number of tables): the namespace view of the tree [root_tree_tn]. *)
From Coq Require Import NArith ZArith Arith List Bool Lia Permutation.
From Coq Require Import ZifyBool ZifyN ZifyNat.
From FF Require Import Lib.Word Gen.Consts_device_acpi_aml Gen.Consts_aml_tree Aml.Stream Aml.Lex
  Aml.Tree Aml.TreeSpec Aml.TreeProofs Aml.Parser Aml.Grammar Aml.LexRoundtrip
  Aml.ParserTotalBase Aml.ParserFragBase Aml.ParserFragFirst Aml.ParserFragF0 Aml.ParserFragF0Conn Aml.ParserFragF0Top
  Aml.ParserFragRose Aml.ParserFragDev Aml.ParserFragArgs Aml.ParserFragF1 Aml.ParserFragF1First Aml.ParserFragF1Conn Aml.ParserFragF1Top
  Aml.View Aml.ParserFragView Aml.ParserFragF1View
  Aml.ParserFragScope Aml.ParserFragScope3 Aml.ParserFragF3Top Aml.ParserFragF3View Aml.ParserFragTNTop.
Import ListNotations.
Local Open Scope N_scope.

(** the view lists the contents of the predefined scopes (only the last table has Scope directives), then the objects
    of the tables in the order of loading *)
Definition view_tn (tss : list (list titem)) (ts : list titem) : list (list N) :=
  vmoved ts 1 ++ vmoved ts 2 ++ vmoved ts 3 ++ vmoved ts 4 ++ vmoved ts 5 ++ flat_map vkeep tss ++ vkeep ts.

Lemma vmoved_noscope d : forall ts, noscope ts = true -> vmoved ts d = [].
Proof.
  induction ts as [|x t IH]; intros Hn; [reflexivity|]. cbn [noscope forallb] in Hn. apply andb_prop in Hn. destruct Hn as [Hx Ht].
  destruct x as [it|]; [|discriminate]. cbn [vmoved flat_map app]. apply IH. exact Ht.
Qed.

Lemma vkeep_perm ts : front_ok ts -> Permutation (vkeep ts) (sentries3 ts).
Proof.
  intros (Hn & Hok). pose proof (view3_perm ts Hok) as P. unfold view3 in P. rewrite !vmoved_noscope in P by exact Hn. exact P.
Qed.

Lemma view_tn_perm tss ts : Forall front_ok tss -> forallb titem_okb ts = true ->
  Permutation (view_tn tss ts) (flat_map sentries3 tss ++ sentries3 ts).
Proof.
  intros Hfr Hok. unfold view_tn.
  assert (P1 : Permutation (flat_map vkeep tss) (flat_map sentries3 tss)).
  { induction Hfr as [|x r Hx Hr IH]; [constructor|]. cbn [flat_map]. apply Permutation_app; [apply vkeep_perm; exact Hx|exact IH]. }
  eapply Permutation_trans; [|apply Permutation_app; [exact P1|apply (view3_perm ts Hok)]].
  unfold view3. set (A1 := vmoved ts 1). set (A2 := vmoved ts 2). set (A3 := vmoved ts 3). set (A4 := vmoved ts 4). set (A5 := vmoved ts 5).
  replace (A1 ++ A2 ++ A3 ++ A4 ++ A5 ++ flat_map vkeep tss ++ vkeep ts) with ((A1 ++ A2 ++ A3 ++ A4 ++ A5) ++ flat_map vkeep tss ++ vkeep ts) by (rewrite <- !app_assoc; reflexivity).
  eapply Permutation_trans; [apply perm_ins|]. rewrite <- !app_assoc. apply Permutation_refl.
Qed.

Section ViewTN.
Variable t : T.
Variable g : ghost.
Variable pl : list pay.
Hypothesis H : Rep t g pl.
Variable tables : list (list N).

Lemma KTn_fold f known : forall tss k b es pre post,
  tables = pre ++ images tss ++ post -> lenN pre = k ->
  Forall (Desc g pl) (KTn k b tss) -> Forall (fun ts => forallb titem_okb ts = true) tss -> 6 <= b -> (6 <= length pl <= f + 2)%nat ->
  fold_left (walkF t tables f known []) (map ridx (KTn k b tss)) (es, []) = (es ++ flat_map vkeep tss, []).
Proof.
  induction tss as [|ts r IH]; intros k b es pre post Htb Hpre HD Hok Hb Hf.
  - cbn [KTn map fold_left flat_map]. rewrite app_nil_r. reflexivity.
  - cbn [KTn] in HD |- *. apply Forall_app in HD. destruct HD as [HDx HDr]. rewrite map_app, fold_left_app.
    assert (Hnth : nth_error tables (N.to_nat k) = Some (hdr_of (enc_titems ts) ++ enc_titems ts ++ [])).
    { rewrite Htb. unfold images. cbn [map app]. rewrite nth_error_app2 by (unfold lenN in Hpre; lia).
      replace (N.to_nat k - length pre)%nat with 0%nat by (unfold lenN in Hpre; lia). cbn [nth_error]. rewrite table_image_hdr, app_nil_r. reflexivity. }
    rewrite <- (lenN_hdr_of (enc_titems ts)) in HDx |- *.
    rewrite (keep_fold t g pl H tables (k + 1) k f known _ Hnth ts es [] b (hdr_of (enc_titems ts)) [] eq_refl HDx (Forall_inv Hok) Hb Hf).
    rewrite (IH (k + 1) _ _ (pre ++ [table_image (enc_titems ts)]) post); [cbn [flat_map]; rewrite <- app_assoc; reflexivity| | |exact HDr|exact (Forall_inv_tail Hok)|lia|exact Hf].
    + rewrite Htb. unfold images. cbn [map app]. rewrite <- app_assoc. reflexivity.
    + rewrite lenN_app. change (lenN [table_image (enc_titems ts)]) with 1. lia.
Qed.

Theorem view_tn_eq tss ts : Desc g pl (root_tree_tn tss ts) -> Forall (fun ts => forallb titem_okb ts = true) tss -> forallb titem_okb ts = true ->
  tables = images (tss ++ [ts]) -> view t tables = view_tn tss ts.
Proof.
  intros HD Hok1 Hok Htb.
  set (k := lenN tss) in *. set (b := 6 + N.of_nat (tszsn tss)) in *.
  assert (Hn2 : nth_error tables (N.to_nat k) = Some (hdr_of (enc_titems ts) ++ enc_titems ts ++ [])).
  { rewrite Htb. unfold images. rewrite map_app. cbn [map]. rewrite nth_error_app2 by (rewrite map_length; unfold k, lenN; lia).
    replace (N.to_nat k - length (map (fun ts0 => table_image (enc_titems ts0)) tss))%nat with 0%nat by (rewrite map_length; unfold k, lenN; lia).
    cbn [nth_error]. rewrite table_image_hdr, app_nil_r. reflexivity. }
  unfold view. set (known := [] :: collect_known t (pool_fuel t) 0 []).
  unfold pool_fuel at 1. rewrite walk_S.
  unfold root_tree_tn, root_treeG in HD. cbv zeta in HD. fold k in HD. fold b in HD.
  destruct (Desc_inv _ _ _ _ _ HD) as (P0 & K0 & HDk). apply Forall_app in HDk. destruct HDk as [HDl HD2].
  apply Forall_app in HD2. destruct HD2 as [HDK HDkeep].
  assert (Hlen : (6 <= length pl <= length (t_pool t) + 2)%nat).
  { rewrite <- (rep_len_pool _ _ _ H). split; [|lia]. cbn [D0' map] in HDl.
    pose proof (Forall_inv (Forall_inv_tail (Forall_inv_tail (Forall_inv_tail (Forall_inv_tail HDl))))) as D5.
    destruct (Desc_inv _ _ _ _ _ D5) as (P5 & _ & _). apply pget_lt in P5. lia. }
  destruct (view_obj t g pl 0 _ H P0 ltac:(discriminate)) as (so & Hso & _ & Hkso).
  rewrite Hso, Hkso, K0, !map_app, !fold_left_app.
  assert (Hleaf : forall d es, 1 <= d <= 5 ->
            walkF t tables (S (length (t_pool t))) known [] (es, []) d = (es ++ vmoved ts d, [])).
  { intros d es Hd.
    assert (Dd : Desc g pl (RN d (dpay d) (moved (k + 1) k b aml_sizeofSDTHeader ts d))).
    { rewrite Forall_forall in HDl. apply HDl. apply in_map_iff. exists d. split; [reflexivity|]. unfold D0'. cbn [In]. clear -Hd; lia. }
    destruct (Desc_inv _ _ _ _ _ Dd) as (Pd & Kd & HDm).
    destruct (view_obj t g pl d _ H Pd ltac:(discriminate)) as (co & Hco & Epco & Hkco).
    destruct (dname_num d Hd) as (En & Ez).
    apply (walkF_scope t tables _ known [] es [] d co); [exact Hco|rewrite (pay_op _ _ Epco); reflexivity|rewrite (pay_name _ _ Epco); exact Ez|].
    rewrite walk_S, Hco, Hkco, Kd, (pay_name _ _ Epco). cbn [dpay y_name app]. rewrite En.
    rewrite <- (lenN_hdr_of (enc_titems ts)) in HDm |- *.
    rewrite (moved_fold t g pl H tables (k + 1) k (length (t_pool t)) known d _ Hn2 ts [] [] _ (hdr_of (enc_titems ts)) [] eq_refl HDm Hok ltac:(unfold b; clear; lia) Hlen).
    reflexivity. }
  cbn [D0' map ridx fold_left].
  rewrite (Hleaf 1 []) by (clear; lia). rewrite (Hleaf 2) by (clear; lia). rewrite (Hleaf 3) by (clear; lia). rewrite (Hleaf 4) by (clear; lia). rewrite (Hleaf 5) by (clear; lia).
  rewrite (KTn_fold (S (length (t_pool t))) known tss 0 6 _ [] [table_image (enc_titems ts)]); [|rewrite Htb; unfold images; rewrite map_app; reflexivity|reflexivity|exact HDK|exact Hok1|clear; lia|clear -Hlen; lia].
  rewrite <- (lenN_hdr_of (enc_titems ts)) in HDkeep |- *.
  match goal with |- context [fold_left _ (map ridx (keep _ _ _ _ _)) (?es, [])] =>
    rewrite (keep_fold t g pl H tables (k + 1) k (S (length (t_pool t))) known _ Hn2 ts es [] b (hdr_of (enc_titems ts)) [] eq_refl HDkeep Hok ltac:(unfold b; clear; lia) ltac:(clear -Hlen; lia)) end.
  cbn [app anon map]. rewrite app_nil_r. unfold view_tn. rewrite <- !app_assoc. reflexivity.
Qed.
End ViewTN.
