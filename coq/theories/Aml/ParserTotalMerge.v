(** mergeScopeDirectives never panics and keeps C13's tree relation and the shape of the Scope directives.
    Key fact: a name lookup that starts outside the subtree of an object whose own name cannot be looked up (it does not start
    with a name character) ends outside that subtree - so the target of a Scope directive never lies inside the directive and
    every append is legal. *)
From Coq Require Import NArith Arith List Bool Lia.
From Coq Require Import ZifyBool ZifyN ZifyNat.
From FF Require Import Lib.Word Gen.Consts_device_acpi_aml Gen.Consts_aml_tree Aml.Stream Aml.Lex Aml.LexProofs
  Aml.Tree Aml.Parser Aml.ParserProofs Aml.TreeSpec Aml.TreeProofs Aml.TreeProofsOps Aml.TreeProofsFind Aml.TreeProofsAnc
  Aml.ParserTotalTree Aml.ParserTotalTree2 Aml.ParserTotalLex Aml.ParserTotalTable Aml.ParserTotalBase Aml.ParserTotalLeaf
  Aml.ParserTotalConn Aml.ParserTotalNonNamed Aml.ParserTotalCalls Aml.ParserTotalReloc.
Import ListNotations.
Local Open Scope N_scope.

Definition name_lead (n : Name) : bool := let '(a, _, _, _) := n in is_lead a.

Lemma name_eqb_lead a b : name_eqb a b = true -> name_lead a = name_lead b.
Proof.
  destruct a as [[[a0 a1] a2] a3], b as [[[b0 b1] b2] b3]. cbn [name_eqb name_lead]. intros H.
  apply andb_prop in H. destruct H as (H & _). apply andb_prop in H. destruct H as (H & _). apply andb_prop in H. destruct H as (H & _).
  apply N.eqb_eq in H. subst. reflexivity.
Qed.

Section Outside.
Context (t : T) (g : ghost) (HR : R t g) (obj : N).
Let nm := name_at t.
Hypothesis Hnolead : name_lead (nm obj) = false.
Hypothesis Hroot0 : groot g 0.
Hypothesis Hobj0 : obj <> 0.

Definition outside (y : N) : Prop := ~ desc g obj y.

Lemma desc_inv a x : desc g a x -> x = a \/ exists p, desc g a p /\ In x (kids g p).
Proof. intros H. destruct H as [|p c Hd Hin]; [left; reflexivity|right; eauto]. Qed.

Lemma outside_0 : outside 0.
Proof. intros Hd. destruct (desc_inv _ _ Hd) as [E|(p & _ & Hin)]; [congruence|]. apply (Hroot0 p Hin). Qed.

Lemma lookup_outside scope seg c : name_lead seg = true -> outside scope -> lookup g nm scope seg = Some c -> outside c.
Proof.
  intros Hseg Hout Hl Hd. unfold lookup in Hl. apply find_some in Hl. destruct Hl as (Hin & Heq).
  destruct (desc_inv _ _ Hd) as [E|(p & Hdp & Hin')].
  - subst c. apply name_eqb_lead in Heq. congruence.
  - assert (p = scope) by (eapply (R_parent_unique _ _ HR); eauto). subst p. contradiction.
Qed.

Lemma walk_outside : forall names scope r, Forall (fun n => name_lead n = true) names -> outside scope ->
  walk g nm scope names = Some r -> outside r.
Proof.
  induction names as [|n names IH]; intros scope r Hall Hout H; cbn [walk] in H.
  - inversion H; subst. exact Hout.
  - inversion Hall; subst. destruct (lookup g nm scope n) as [c|] eqn:El; [|discriminate].
    apply (IH c r); auto. eapply lookup_outside; eauto.
Qed.

Lemma segments_lead : forall n e sk names, (length e <= n)%nat -> segments sk e = Some names -> Forall (fun x => name_lead x = true) names.
Proof.
  induction n as [|n IH]; intros e sk names Hlen H.
  - destruct e; [|cbn in Hlen; lia]. cbn [segments] in H. destruct sk; [discriminate|]. inversion H. constructor.
  - destruct e as [|b0 rest0]; cbn [segments] in H.
    + destruct sk; [discriminate|]. inversion H. constructor.
    + destruct (is_lead b0) eqn:El.
      * destruct rest0 as [|b1 [|b2 [|b3 rest]]]; try discriminate.
        destruct (segments false rest) as [ns|] eqn:Es; cbn [option_map] in H; [|discriminate]. inversion H; subst.
        constructor; [exact El|]. apply (IH rest false ns); auto. cbn [length] in Hlen. lia.
      * destruct (b0 =? 0x2f).
        -- destruct rest0 as [|b1 rest1]; [discriminate|]. apply (IH rest1 true names); auto. cbn [length] in Hlen. lia.
        -- apply (IH rest0 true names); auto. cbn [length] in Hlen. lia.
Qed.

Lemma resolve_rel_outside scope e r : outside scope -> resolve_rel g nm scope e = Some r -> outside r.
Proof.
  intros Hout H. unfold resolve_rel in H. destruct (segments false e) as [names|] eqn:Es; [|discriminate].
  apply (walk_outside names scope r); [apply (segments_lead (length e) e false names (le_n _) Es)|exact Hout|exact H].
Qed.

Lemma parent_of_In c p : parent_of g c = Some p -> In c (kids g p).
Proof.
  unfold parent_of. intros H. apply find_some in H. destruct H as (_ & H).
  apply existsb_exists in H. destruct H as (x & Hx & E). apply N.eqb_eq in E. subst. exact Hx.
Qed.

Lemma parent_outside scope p : outside scope -> parent_of g scope = Some p -> outside p.
Proof. intros Hout H Hd. apply Hout. eapply desc_step; [exact Hd|]. apply parent_of_In. exact H. Qed.

Lemma carets_outside : forall e scope r, outside scope -> carets g nm scope e = Some r -> outside r.
Proof.
  induction e as [|b rest IH]; intros scope r Hout H; cbn [carets] in H.
  - inversion H; subst. exact Hout.
  - destruct (b =? 0x5e).
    + destruct (parent_of g scope) as [p|] eqn:Ep; [|discriminate]. apply (IH p r); auto. eapply parent_outside; eauto.
    + eapply resolve_rel_outside; eauto.
Qed.

Lemma search_up_outside seg : name_lead seg = true -> forall fuel scope r, outside scope ->
  search_up g nm fuel scope seg = Some r -> outside r.
Proof.
  intros Hseg. induction fuel as [|fuel IH]; intros scope r Hout H; cbn [search_up] in H; [discriminate|].
  destruct (lookup g nm scope seg) as [c|] eqn:El.
  - inversion H; subst. eapply lookup_outside; eauto.
  - destruct (parent_of g scope) as [p|] eqn:Ep; [|discriminate]. apply (IH p r); auto. eapply parent_outside; eauto.
Qed.

(** paths of exactly four bytes are looked up as one segment whatever their first byte is *)
Definition good_path (e : list N) : Prop :=
  match e with [b0; _; _; _] => is_lead b0 = true \/ b0 = 0x5c \/ b0 = 0x5e | _ => True end.

Lemma resolve_outside scope e r : good_path e -> outside scope -> resolve g nm scope e = Some r -> outside r.
Proof.
  intros Hgood Hout H. unfold resolve in H. destruct e as [|b rest]; [discriminate|].
  destruct (b =? 0x5c) eqn:E1.
  { eapply resolve_rel_outside; [apply outside_0|exact H]. }
  destruct (b =? 0x5e) eqn:E2.
  { eapply carets_outside; eauto. }
  destruct rest as [|b1 [|b2 [|b3 [|b4 rest']]]].
  - destruct (4 <? N.of_nat (length [b])); [eapply resolve_rel_outside; eauto|discriminate].
  - destruct (4 <? N.of_nat (length [b; b1])); [eapply resolve_rel_outside; eauto|discriminate].
  - destruct (4 <? N.of_nat (length [b; b1; b2])); [eapply resolve_rel_outside; eauto|discriminate].
  - cbn [good_path] in Hgood. apply N.eqb_neq in E1. apply N.eqb_neq in E2.
    destruct Hgood as [Hg|[Hg|Hg]]; try contradiction.
    eapply (search_up_outside (b, b1, b2, b3)); eauto.
  - destruct (4 <? N.of_nat (length (b :: b1 :: b2 :: b3 :: b4 :: rest'))); [eapply resolve_rel_outside; eauto|discriminate].
Qed.
End Outside.


(** ---- free ---- *)
Definition fframe (x : N) (t t' : T) : Prop :=
  length (t_pool t') = length (t_pool t) /\
  forall i o, tget t i = Some o -> exists o', tget t' i = Some o' /\ o_value o' = o_value o /\ (i <> x -> pay_eq o o').

Lemma fframe_of_pframe x (t t' : T) : pframe t t' -> fframe x t t'.
Proof.
  intros (L & H). split; auto. intros i o Hg. destruct (H _ _ Hg) as (o' & Hg' & E). exists o'. split; auto.
  split; [|intros _; exact E]. destruct E as (_ & _ & _ & _ & _ & _ & _ & E8). exact E8.
Qed.

Lemma fframe_trans x (t1 t2 t3 : T) : fframe x t1 t2 -> fframe x t2 t3 -> fframe x t1 t3.
Proof.
  intros (L1 & H1) (L2 & H2). split; [congruence|]. intros i o Hg.
  destruct (H1 _ _ Hg) as (o' & Hg' & V1 & P1). destruct (H2 _ _ Hg') as (o'' & Hg'' & V2 & P2).
  exists o''. split; auto. split; [congruence|]. intros Hne. specialize (P1 Hne). specialize (P2 Hne). unfold pay_eq in *. intuition congruence.
Qed.

Lemma fframe_tset x (t : T) f : (forall o, o_value (f o) = o_value o) -> fframe x t (tset t x f).
Proof.
  intros Hf. split; [apply tset_len|]. intros i o Hg. rewrite get_tset, Hg. cbn [option_map].
  destruct (N.eqb_spec i x) as [->|Hne].
  - exists (f o). split; auto. split; [apply Hf|intros E; contradiction].
  - exists o. split; auto. split; auto. intros _. apply pay_eq_refl.
Qed.

Lemma free_frame (t t' : T) x : free t x = Ok t' -> fframe x t t'.
Proof.
  unfold free. intros H.
  apply bind_ok in H. destruct H as (par & _ & H).
  apply bind_ok in H. destruct H as (t1 & Ht1 & H).
  assert (F1 : fframe x t t1).
  { destruct (negb (par =? InvalidIndex)).
    - apply bind_ok in Ht1. destruct Ht1 as (pp & _ & Hd). apply fframe_of_pframe. eapply detach_pframe; eauto.
    - inversion Ht1; subst. apply fframe_of_pframe. apply pframe_refl. }
  apply bind_ok in H. destruct H as (first & _ & H).
  apply bind_ok in H. destruct H as (lst & _ & H).
  destruct (negb (first =? InvalidIndex) || negb (lst =? InvalidIndex)); [discriminate|].
  apply bind_ok in H. destruct H as (t2 & Ht2 & H). destruct (wr_inv _ _ _ _ Ht2) as (-> & _).
  apply bind_ok in H. destruct H as (t3 & Ht3 & H). destruct (wr_inv _ _ _ _ Ht3) as (-> & _).
  apply bind_ok in H. destruct H as (oi & _ & H). inversion H; subst t'. clear H.
  eapply fframe_trans; [exact F1|].
  eapply fframe_trans; [apply (fframe_tset x t1 (set_opcode opFreed)); reflexivity|].
  pose proof (fframe_tset x (tset t1 x (set_opcode opFreed)) (set_next (t_free (tset t1 x (set_opcode opFreed)))) (fun _ => eq_refl)) as F3.
  destruct F3 as (L3 & H3). split; [exact L3|]. intros i o Hg. apply (H3 i o Hg).
Qed.

Lemma remove1_id a l : ~ In a l -> remove1 a l = l.
Proof.
  induction l as [|x l IH]; intros H; cbn [remove1]; [reflexivity|].
  destruct (N.eqb_spec x a) as [E|E]; [exfalso; apply H; left; exact E|]. rewrite IH; auto. intros Hi. apply H. right. exact Hi.
Qed.

Lemma free_step P x s g (Q : unit -> pstate -> Prop) :
  TI s g -> glive g x -> kids g x = [] ->
  (forall t', let g' := astep g (OpFree x) in
     TI (with_tree s t') g' -> (forall p, kids g' p = remove1 x (kids g p)) ->
     (forall y, glive g' y <-> glive g y /\ y <> x) ->
     (forall S : N -> Prop, S x -> evolve S g g') -> fframe x (p_tree s) t' ->
     Q tt (with_tree s t')) ->
  wp P (freeM x) s Q.
Proof.
  intros H Hl Hk K. pose proof (ti_R _ _ H) as HR.
  destruct (free_R (p_tree s) g x HR (conj Hl Hk)) as (t' & E & HR').
  pose proof (free_frame _ _ _ E) as Hff.
  unfold freeM. apply wp_tu. exists t'. split; [exact E|].
  destruct (TI_live_get _ _ _ H Hl) as (xo & Hxo & Hlxo).
  assert (Hkids : forall p, kids (astep g (OpFree x)) p = remove1 x (kids g p)).
  { intros p. cbn [astep]. rewrite (parent_of_spec _ _ _ _ HR Hxo Hlxo).
    destruct (N.eqb_spec (o_parent xo) InvalidIndex) as [Ep|Ep].
    - change (kids g p = remove1 x (kids g p)). symmetry. apply remove1_id.
      apply (proj2 (R_groot _ _ HR x xo Hxo Hlxo) Ep).
    - destruct (R_parent_live _ _ HR x xo Hxo Hlxo Ep) as (Hin & _).
      assert (Hplt : o_parent xo < N.of_nat (length (g_kids g))) by (eapply In_kids_lt; eauto).
      change (kids (set_kids g (o_parent xo) (remove1 x (kids g (o_parent xo)))) p = remove1 x (kids g p)).
      rewrite kids_set_kids by exact Hplt. destruct (N.eqb_spec p (o_parent xo)) as [->|Hne]; [reflexivity|].
      symmetry. apply remove1_id. intros Hi. apply Hne. eapply (R_parent_unique _ _ HR); eauto. }
  assert (Hlen : length (g_kids (astep g (OpFree x))) = length (g_kids g)).
  { cbn [astep]. destruct (parent_of g x); cbn [g_kids]; [apply set_kids_len|reflexivity]. }
  assert (Hfree : g_free (astep g (OpFree x)) = x :: g_free g) by reflexivity.
  assert (Hlive : forall y, glive (astep g (OpFree x)) y <-> glive g y /\ y <> x).
  { intros y. unfold glive. rewrite Hlen, Hfree. cbn [In]. split.
    - intros (A & B). split; [split; [exact A|tauto]|]. intros E1. apply B. left. symmetry. exact E1.
    - intros ((A & B) & C). split; [exact A|]. intros [E1|E1]; [apply C; symmetry; exact E1|contradiction]. }
  destruct Hff as (Lff & Hff).
  apply K; auto.
  - constructor; pcbn; auto.
    + intros i o' Hg' Hl'. pose proof (get_lt _ _ _ Hg') as Hlt. rewrite Lff in Hlt.
      destruct (get_some _ _ Hlt) as (o & Ho). destruct (Hff i o Ho) as (o2 & Hg2 & V & Pq).
      assert (o2 = o') by congruence. subst o2.
      assert (Hix : i <> x).
      { intros ->. assert (Hl2 : glive (astep g (OpFree x)) x) by (apply (R_live_glive _ _ HR'); exists o'; auto).
        apply Hlive in Hl2. destruct Hl2 as (_ & C). apply C. reflexivity. }
      destruct (Pq Hix) as (E1 & E2 & _). rewrite E2. apply (ti_info _ _ H i o Ho). congruence.
    + pose proof (ti_pool _ _ H) as Hp. unfold pool_ok in *. rewrite Forall_forall in *. intros o' Hin.
      destruct (In_nth_error _ _ Hin) as (n & Hn).
      assert (Hg' : tget t' (N.of_nat n) = Some o') by (unfold TreeSpec.get; rewrite Nat2N.id; exact Hn).
      pose proof (get_lt _ _ _ Hg') as Hlt. rewrite Lff in Hlt. destruct (get_some _ _ Hlt) as (o & Ho).
      destruct (Hff _ o Ho) as (o2 & Hg2 & V & _). assert (o2 = o') by congruence. subst o2. rewrite V.
      apply Hp. eapply nth_error_In. exact Ho.
  - intros S HSx. constructor; auto.
    + intros y Hy. apply Hlive in Hy. tauto.
    + intros y Hy Hn. apply Hlive. split; auto. intros ->. contradiction.
    + intros p. exists (remove1 x (kids g p)), []. rewrite app_nil_r. split; [apply Hkids|]. split; [apply sublist_remove1|constructor].
  - split; auto.
Qed.

(** ---- strict descendants ---- *)
Definition sdesc (g : ghost) (x y : N) : Prop := exists c, In c (kids g x) /\ desc g c y.

Lemma sdesc_desc g x y : sdesc g x y -> desc g x y.
Proof. intros (c & Hin & Hd). eapply desc_trans; [|exact Hd]. eapply desc_step; [constructor|exact Hin]. Qed.

Lemma desc_sdesc g x y : desc g x y -> y = x \/ sdesc g x y.
Proof.
  intros H. induction H as [|p c H IH Hin]; [left; reflexivity|right].
  destruct IH as [->|(c0 & Hc0 & Hd)].
  - exists c. split; [exact Hin|constructor].
  - exists c0. split; [exact Hc0|]. eapply desc_step; eauto.
Qed.

Lemma sdesc_closed g x : closed g (sdesc g x).
Proof. intros y c (c0 & Hc0 & Hd) Hin. exists c0. split; [exact Hc0|]. eapply desc_step; eauto. Qed.

Section SDesc.
Context {V : Type} (t : ObjectTree V) (g : ghost) (HR : R t g).

Lemma sdesc_not_self x : ~ sdesc g x x.
Proof. intros (c & Hin & Hd). eapply (child_not_desc t g HR); eauto. Qed.

Lemma sdesc_suffixes x : suffixes (sdesc g x) g.
Proof.
  intros p l1 a l2 Ek (c0 & Hc0 & Hd). rewrite Forall_forall. intros z Hz.
  assert (Hza : In z (kids g p)) by (rewrite Ek; apply in_or_app; right; right; exact Hz).
  assert (Hap : In a (kids g p)) by (rewrite Ek; apply in_or_app; right; left; reflexivity).
  destruct Hd as [|p' c' Hd Hin].
  - assert (p = x) by (eapply (R_parent_unique t g HR); eauto). subst p. exists z. split; [exact Hza|constructor].
  - assert (p' = p) by (eapply (R_parent_unique t g HR); eauto). subst p'. exists c0. split; [exact Hc0|]. eapply desc_step; eauto.
Qed.

Lemma parent_not_desc p c : In c (kids g p) -> ~ desc g c p.
Proof. apply (child_not_desc t g HR). Qed.
End SDesc.

(** redirecting edges into [tg] creates no new path to [tg] *)
Lemma desc_redirect g g2 tg a : (forall v c, v <> tg -> In c (kids g2 v) -> In c (kids g v)) -> desc g2 a tg -> desc g a tg.
Proof.
  intros Hsub H.
  assert (G : forall z, desc g2 a z -> desc g a z \/ desc g a tg).
  { intros z Hz. induction Hz as [|p c Hz IH Hin]; [left; constructor|].
    destruct IH as [IH|IH]; [|right; exact IH].
    destruct (N.eq_dec p tg) as [->|Hne]; [right; exact IH|left]. eapply desc_step; [exact IH|]. apply Hsub; auto. }
  destruct (G tg H); auto.
Qed.

(** ---- the shape of the Scope directives of the table being loaded ---- *)
Definition sdir (tbls : list (list N)) (t : T) (g : ghost) (x : N) (xname : Name) (xinfo : N) : Prop :=
  name_lead xname = false /\
  (forall op fl af, opInfo xinfo = Some (op, fl, af) -> hasFlag fl aml_pOpFlagNamed = false) /\
  exists n c no co tbl sl,
    kids g x = [n; c] /\ kids g n = [] /\
    tget t n = Some no /\ o_opcode no <> aml_pOpIntScopeBlock /\ o_opcode no <> aml_pOpScope /\
    o_value no = Some (VBytes tbl sl) /\
    (forall s0 bytes, p_tables s0 = tbls -> slice_bytes s0 tbl sl = Ok bytes -> good_path bytes) /\
    tget t c = Some co /\ o_opcode co = aml_pOpIntScopeBlock.

Definition tyS (X : N -> Prop) (tbls : list (list N)) (h : N) (t : T) (g : ghost) : Prop :=
  forall x xo, tget t x = Some xo -> o_opcode xo = aml_pOpScope -> o_tableHandle xo = h -> ~ X x -> sdir tbls t g x (o_name xo) (o_infoIndex xo).

Lemma tyS_weaken (X X' : N -> Prop) tbls h t g : (forall y, X y -> X' y) -> tyS X tbls h t g -> tyS X' tbls h t g.
Proof. intros Hs H x xo Hg Ho Hh Hx. apply (H x xo); auto. Qed.

Lemma scope_ne_sb : aml_pOpScope <> aml_pOpIntScopeBlock.
Proof. discriminate. Qed.

Lemma tyS_move X tbls h (t t2 : T) g g2 par target m :
  tyS X tbls h t g -> pframe t t2 ->
  (forall q, kids g2 q = (if q =? par then remove1 m (kids g par) else kids g q) ++ (if q =? target then [m] else [])) ->
  (exists o, tget t par = Some o /\ o_opcode o = aml_pOpIntScopeBlock) ->
  (exists o, tget t target = Some o /\ o_opcode o = aml_pOpIntScopeBlock) ->
  tyS X tbls h t2 g2.
Proof.
  intros H Hpf Hk (po & Hpo & Epo) (to & Hto & Eto) x xo2 Hg2 Hop Hh HX.
  destruct (pframe_inv _ _ _ _ Hpf Hg2) as (xo & Hg & E).
  destruct E as (E1 & E2 & E3 & E4 & _).
  assert (Hsame : forall q qo, tget t q = Some qo -> o_opcode qo <> aml_pOpIntScopeBlock -> kids g2 q = kids g q).
  { intros q qo Hq Hne. rewrite Hk.
    destruct (N.eqb_spec q par) as [->|_]; [exfalso; apply Hne; congruence|].
    destruct (N.eqb_spec q target) as [->|_]; [exfalso; apply Hne; congruence|]. apply app_nil_r. }
  destruct (H x xo Hg) as (Hn & Hnn & n & c & no & co & tbl & sl & K1 & K2 & K3 & K4 & K5 & K6 & K7 & K8 & K9); try congruence.
  split; [congruence|]. split; [rewrite E2; exact Hnn|].
  destruct (proj2 Hpf _ _ K3) as (no2 & Hno2 & F1 & _ & _ & _ & _ & _ & _ & F8).
  destruct (proj2 Hpf _ _ K8) as (co2 & Hco2 & G1 & _).
  exists n, c, no2, co2, tbl, sl.
  split; [rewrite (Hsame x xo Hg); [exact K1|rewrite <- E1, Hop; apply scope_ne_sb]|].
  split; [rewrite (Hsame n no K3 K4); exact K2|].
  repeat (split; [congruence|]). split; [exact K7|]. split; congruence.
Qed.

Lemma fframe_inv x (t t' : T) i o' : fframe x t t' -> tget t' i = Some o' ->
  exists o, tget t i = Some o /\ o_value o' = o_value o /\ (i <> x -> pay_eq o o').
Proof.
  intros (L & H) Hg. pose proof (get_lt _ _ _ Hg) as Hlt. rewrite L in Hlt.
  destruct (get_some _ _ Hlt) as (o & Ho). destruct (H _ _ Ho) as (o2 & Hg2 & E).
  assert (o2 = o') by congruence. subst. eauto.
Qed.

Lemma tyS_free X tbls h (t t' : T) g g' y :
  tyS X tbls h t g -> fframe y t t' ->
  (forall p, kids g' p = remove1 y (kids g p)) ->
  (forall o', tget t' y = Some o' -> o_opcode o' = opFreed) ->
  (forall x xo, tget t x = Some xo -> o_opcode xo = aml_pOpScope -> o_tableHandle xo = h -> ~ X x -> x <> y -> ~ In y (kids g x)) ->
  tyS X tbls h t' g'.
Proof.
  intros H Hff Hk Hfr Hpar x xo' Hg' Hop Hh HX.
  assert (Hxy : x <> y).
  { intros ->. specialize (Hfr _ Hg'). rewrite Hop in Hfr. discriminate. }
  destruct (fframe_inv _ _ _ _ _ Hff Hg') as (xo & Hg & _ & E). specialize (E Hxy).
  destruct E as (E1 & E2 & E3 & E4 & _).
  assert (Hop0 : o_opcode xo = aml_pOpScope) by congruence.
  assert (Hh0 : o_tableHandle xo = h) by congruence.
  destruct (H x xo Hg Hop0 Hh0 HX) as (Hn & Hnn & n & c & no & co & tbl & sl & K1 & K2 & K3 & K4 & K5 & K6 & K7 & K8 & K9).
  split; [congruence|]. split; [rewrite E2; exact Hnn|].
  pose proof (Hpar x xo Hg Hop0 Hh0 HX Hxy) as Hnin. rewrite K1 in Hnin.
  assert (Hny : n <> y) by (intros ->; apply Hnin; left; reflexivity).
  assert (Hcy : c <> y) by (intros ->; apply Hnin; right; left; reflexivity).
  destruct (proj2 Hff _ _ K3) as (no2 & Hno2 & _ & F). destruct (F Hny) as (F1 & _ & _ & _ & _ & _ & _ & F8).
  destruct (proj2 Hff _ _ K8) as (co2 & Hco2 & _ & G). destruct (G Hcy) as (G1 & _).
  exists n, c, no2, co2, tbl, sl.
  split; [rewrite Hk, K1; apply remove1_id; exact Hnin|].
  split; [rewrite Hk, K2; reflexivity|].
  repeat (split; [congruence|]). split; [exact K7|]. split; congruence.
Qed.

(** the objects mergeScopeDirectives frees: a Scope directive or a child of one *)
Definition scoped (s : pstate) (g : ghost) (y : N) : Prop :=
  (exists yo, tget (p_tree s) y = Some yo /\ o_opcode yo = aml_pOpScope) \/
  (exists d dobj, In y (kids g d) /\ tget (p_tree s) d = Some dobj /\ o_opcode dobj = aml_pOpScope).

(** ---- the invariant of mergeScopeDirectives, with an abstract part [KI] that survives a move between two ScopeBlocks and
    the freeing of a childless scoped object ---- *)
Section MergeK.
Variable KI : pstate -> ghost -> Prop.
Hypothesis K_counters : forall s g a b c, KI s g -> KI (with_counters s a b c) g.
Hypothesis K_move : forall s g c m tg (t2 : T) g2, TI s g -> KI s g -> In m (kids g c) -> is_sb s c -> is_sb s tg ->
  pframe (p_tree s) t2 -> shape_eq g g2 ->
  (forall q, kids g2 q = (if q =? c then remove1 m (kids g c) else kids g q) ++ (if q =? tg then [m] else [])) ->
  KI (with_tree s t2) g2.
Hypothesis K_free : forall s g y (t' : T) g', TI s g -> KI s g -> glive g y -> kids g y = [] -> scoped s g y ->
  fframe y (p_tree s) t' -> (forall p, kids g' p = remove1 y (kids g p)) ->
  (forall z, glive g' z <-> glive g z /\ z <> y) -> (forall o', tget t' y = Some o' -> o_opcode o' = opFreed) ->
  KI (with_tree s t') g'.

Record MI (X : N -> Prop) (s : pstate) (g : ghost) : Prop := mkMI {
  mi_TI : TI s g;
  mi_live0 : glive g 0;
  mi_root0 : groot g 0;
  mi_sb0 : is_sb s 0;
  mi_ty : tyS X (p_tables s) (p_handle s) (p_tree s) g;
  mi_K : KI s g
}.

Lemma MI_counters X s g a b c : MI X s g -> MI X (with_counters s a b c) g.
Proof. intros [A B C D E F]. constructor; auto. apply TI_counters. exact A. Qed.

Lemma MI_weaken (X X' : N -> Prop) s g : (forall y, X y -> X' y) -> MI X s g -> MI X' s g.
Proof. intros Hs [A B C D E F]. constructor; auto. eapply tyS_weaken; eauto. Qed.

Lemma is_sb_fframe s (t' : T) x y : is_sb s y -> fframe x (p_tree s) t' -> y <> x -> is_sb (with_tree s t') y.
Proof. intros (o & Ho & E) Hff Hne. destruct (proj2 Hff _ _ Ho) as (o' & Ho' & _ & F). destruct (F Hne) as (E1 & _). exists o'. split; [exact Ho'|congruence]. Qed.

Lemma directive_target X s g x xo bytes : MI X s g -> tget (p_tree s) x = Some xo -> o_opcode xo <> opFreed ->
  name_lead (o_name xo) = false -> x <> 0 -> good_path bytes ->
  exists target, Find (p_tree s) (o_parent xo) bytes = Ok target /\
                 (target = InvalidIndex \/ (glive g target /\ ~ desc g x target)).
Proof.
  intros H Hxo Hlxo Hnl Hx0 Hgood. pose proof (mi_TI _ _ _ H) as HT. pose proof (ti_R _ _ HT) as HR.
  assert (Hlive_0 : live (p_tree s) 0) by (apply (R_live_glive _ _ HR); apply (mi_live0 _ _ _ H)).
  destruct (parent_link _ _ _ _ HT Hxo Hlxo) as [(Ep & _)|(Ep & Hinx & Hlp)].
  - rewrite Ep. exists InvalidIndex. split; [apply Find_invalid|left; reflexivity].
  - assert (Hlivep : live (p_tree s) (o_parent xo)) by (apply (R_live_glive _ _ HR); exact Hlp).
    pose proof (Find_spec _ _ HR (o_parent xo) bytes Hlivep Hlive_0) as Ef. eexists. split; [exact Ef|].
    destruct (resolve g (name_at (p_tree s)) (o_parent xo) bytes) as [r|] eqn:Er; cbn [enc_result]; [|left; reflexivity].
    destruct (Find_result_live _ _ HR (o_parent xo) bytes _ Hlivep Hlive_0 Ef) as [E|E]; [left; exact E|right].
    cbn [enc_result] in E. split; [apply (R_live_glive _ _ HR); exact E|].
    assert (Hnm : name_lead (name_at (p_tree s) x) = false) by (unfold name_at; rewrite Hxo; exact Hnl).
    apply (resolve_outside (p_tree s) g HR x Hnm (mi_root0 _ _ _ H) Hx0 (o_parent xo) bytes r Hgood); [|exact Er].
    apply (child_not_desc _ _ HR). exact Hinx.
Qed.

(** ---- one move and one free under the invariant ---- *)
Lemma MI_move {RT} P X c m tg (k : M RT) s g (Q : RT -> pstate -> Prop) :
  MI X s g -> In m (kids g c) -> glive g tg -> ~ desc g m tg -> is_sb s c -> is_sb s tg ->
  (forall t2 g2, MI X (with_tree s t2) g2 -> shape_eq g g2 ->
     (forall S : N -> Prop, S m -> evolve S g g2) -> pframe (p_tree s) t2 ->
     (forall q, kids g2 q = (if q =? c then remove1 m (kids g c) else kids g q) ++ (if q =? tg then [m] else [])) ->
     wp P k (with_tree s t2) Q) ->
  wp P (detachM (Some c) (Some m) ;;; appendM (Some tg) m ;;; k) s Q.
Proof.
  intros [A B C D E F] Hin Hltg Hnd Hc Htg K0.
  eapply (move_gen P c m tg k s g); [exact A|exact Hin|exact Hltg|exact Hnd|].
  intros t2 g2 H2 S2 R2 _ Hev Hpf Hk. apply (K0 t2 g2); auto.
  constructor; auto.
  - apply (shape_eq_glive _ _ _ S2). exact B.
  - apply (R2 0 B). exact C.
  - apply is_sb_pframe; auto.
  - eapply tyS_move; eauto.
  - eapply (K_move s g c m tg t2 g2); eauto.
Qed.

Lemma MI_free P X y s g (Q : unit -> pstate -> Prop) :
  MI X s g -> glive g y -> kids g y = [] -> y <> 0 -> scoped s g y ->
  (forall x xo, tget (p_tree s) x = Some xo -> o_opcode xo = aml_pOpScope -> o_tableHandle xo = p_handle s -> ~ X x -> x <> y -> ~ In y (kids g x)) ->
  (forall t' g', MI X (with_tree s t') g' -> (forall p, kids g' p = remove1 y (kids g p)) ->
     (forall z, glive g' z <-> glive g z /\ z <> y) ->
     (forall S : N -> Prop, S y -> evolve S g g') -> fframe y (p_tree s) t' ->
     (forall o', tget t' y = Some o' -> o_opcode o' = opFreed) ->
     Q tt (with_tree s t')) ->
  wp P (freeM y) s Q.
Proof.
  intros [A B C D E FK] Hl Hk Hy0 Hsc Hpar K0.
  apply (free_step P y s g Q A Hl Hk). intros t' g' H' Hk' Hl' Hev Hff.
  assert (Hfr : forall o', tget t' y = Some o' -> o_opcode o' = opFreed).
  { intros o' Ho'. destruct (N.eq_dec (o_opcode o') opFreed) as [E0|E0]; [exact E0|exfalso].
    assert (Hly : glive g' y) by (apply (R_live_glive _ _ (ti_R _ _ H')); exists o'; auto).
    apply Hl' in Hly. destruct Hly as (_ & F). apply F. reflexivity. }
  apply (K0 t' g'); auto.
  constructor; auto.
  - apply Hl'. split; auto.
  - intros p Hin. rewrite Hk' in Hin. apply remove1_In in Hin. apply (C p Hin).
  - apply (is_sb_fframe s t' y 0); auto.
  - eapply tyS_free; eauto.
  - eapply (K_free s g y t' g'); eauto.
Qed.

(** ---- moveContents: all children of [c] go to the end of [tg] ---- *)
Lemma move_all P X c tg : forall ms fuel s g (Q : unit -> pstate -> Prop),
  (length ms < fuel)%nat -> MI X s g -> kids g c = ms -> glive g tg -> is_sb s c -> is_sb s tg -> c <> tg ->
  (forall m, In m ms -> ~ desc g m tg) ->
  (forall s2 g2, MI X s2 g2 -> kids g2 c = [] -> (forall q, q <> c -> q <> tg -> kids g2 q = kids g q) ->
     kids g2 tg = kids g tg ++ ms -> (forall S : N -> Prop, (forall m, In m ms -> S m) -> evolve S g g2) ->
     pframe (p_tree s) (p_tree s2) -> shape_eq g g2 -> Q tt s2) ->
  wp P (moveContents_go fuel c tg (hd InvalidIndex ms)) s Q.
Proof.
  induction ms as [|m rest IH]; intros fuel s g Q Hfuel H Hk Hltg Hc Htg Hne Hnd K.
  - destruct fuel as [|fuel]; [cbn [length] in Hfuel; lia|]. cbn [moveContents_go hd]. rewrite N.eqb_refl.
    apply wp_ret. apply (K s g); auto.
    + rewrite app_nil_r. reflexivity.
    + intros S _. apply evolve_refl.
    + apply pframe_refl.
    + apply shape_eq_refl.
  - destruct fuel as [|fuel]; [cbn [length] in Hfuel; lia|]. cbn [moveContents_go hd].
    pose proof (mi_TI _ _ _ H) as HT. pose proof (ti_R _ _ HT) as HR.
    assert (Hin : In m (kids g c)) by (rewrite Hk; left; reflexivity).
    destruct ((R_gwf _ _ HR) _ _ Hin) as (Hlc & Hlm).
    destruct (TI_live_get _ _ _ HT Hlm) as (mo0 & Hmo0 & _).
    assert (Em : (m =? InvalidIndex) = false) by (apply N.eqb_neq; eapply (R_pos_not_Inv _ _ HR); eauto).
    rewrite Em.
    apply wp_bind. apply wp_objectAt'; [apply (TI_ObjectAt _ _ _ HT Hlm)|].
    destruct (sibling_links _ _ HR c [] m rest Hlc Hk) as (mo & Hmo & _ & _ & _ & En & _).
    apply wp_bind. apply wp_rdf. exists mo. split; [exact Hmo|]. rewrite En.
    apply (MI_move P X c m tg _ s g Q H Hin Hltg (Hnd m (or_introl eq_refl)) Hc Htg).
    intros t2 g2 H2 S2 Hev2 Hpf2 Hk2.
    assert (Ect : (c =? tg) = false) by (apply N.eqb_neq; exact Hne).
    assert (Etc : (tg =? c) = false) by (apply N.eqb_neq; intros E; apply Hne; symmetry; exact E).
    assert (Hkc2 : kids g2 c = rest).
    { rewrite Hk2, N.eqb_refl, Ect, app_nil_r, Hk. cbn [remove1]. rewrite N.eqb_refl. reflexivity. }
    assert (Hktg2 : kids g2 tg = kids g tg ++ [m]) by (rewrite Hk2, Etc, N.eqb_refl; reflexivity).
    assert (Hko2 : forall q, q <> c -> q <> tg -> kids g2 q = kids g q).
    { intros q Hq1 Hq2. rewrite Hk2. apply N.eqb_neq in Hq1. apply N.eqb_neq in Hq2. rewrite Hq1, Hq2. apply app_nil_r. }
    apply (IH fuel (with_tree s t2) g2 Q); auto.
    + cbn [length] in Hfuel. lia.
    + apply (shape_eq_glive _ _ _ S2). exact Hltg.
    + apply is_sb_pframe; auto.
    + apply is_sb_pframe; auto.
    + intros m' Hm' Hd. apply (Hnd m' (or_intror Hm')). eapply (desc_redirect g g2 tg); [|exact Hd].
      intros v c0 Hv Hc0. rewrite Hk2 in Hc0. apply N.eqb_neq in Hv. rewrite Hv, app_nil_r in Hc0.
      destruct (N.eqb_spec v c) as [->|_]; [eapply remove1_In; eauto|exact Hc0].
    + intros s3 g3 H3 Hkc3 Hko3 Hktg3 Hev3 Hpf3 S3. apply (K s3 g3); auto.
      * intros q Hq1 Hq2. rewrite Hko3, Hko2; auto.
      * rewrite Hktg3, Hktg2, <- app_assoc. reflexivity.
      * intros S HS. eapply evolve_trans; [apply Hev2; apply HS; left; reflexivity|apply Hev3; intros m' Hm'; apply HS; right; exact Hm'].
      * eapply pframe_trans; [exact Hpf2|exact Hpf3].
      * eapply shape_eq_trans; eauto.
Qed.

(** ---- the two mutually recursive functions ---- *)
Definition NoX : N -> Prop := fun _ => False.

Definition M_spec (fuel : nat) : Prop := forall x s g, MI NoX s g -> glive g x ->
  wp True (mergeScopeDirectives fuel x) s (fun r s' => exists g', MI NoX s' g' /\ evolve (desc g x) g g').

Definition ML_spec (fuel : nat) : Prop := forall (S : N -> Prop) sib res s g, MI NoX s g -> suffixes S g -> closed g S ->
  (sib = InvalidIndex \/ (glive g sib /\ S sib)) ->
  wp True (mergeScope_loop fuel sib res) s (fun r s' => exists g', MI NoX s' g' /\ evolve S g g').

Lemma step_ML fuel : M_spec fuel -> ML_spec fuel -> ML_spec (Datatypes.S fuel).
Proof.
  intros IHc IHl S sib res s g H Hsuf Hcl Hsib. cbn [mergeScope_loop].
  destruct (N.eqb_spec sib InvalidIndex) as [Ei|Ei].
  { apply wp_ret. exists g. split; auto. apply evolve_refl. }
  destruct Hsib as [?|(Hl & HS)]; [contradiction|].
  pose proof (mi_TI _ _ _ H) as HT. pose proof (ti_R _ _ HT) as HR.
  apply wp_bind. apply wp_objectAt'; [apply (TI_ObjectAt _ _ _ HT Hl)|].
  destruct (TI_live_get _ _ _ HT Hl) as (o & Ho & Hlo).
  apply wp_bind. apply wp_rdf. exists o. split; [exact Ho|].
  apply wp_bind. apply wp_rdf. exists o. split; [exact Ho|]. rewrite (R_index _ _ HR _ _ Ho).
  assert (Hnx : o_next o = InvalidIndex \/ (glive g (o_next o) /\ S (o_next o) /\ ~ desc g sib (o_next o))).
  { destruct (parent_link _ _ _ _ HT Ho Hlo) as [(_ & Hr)|(Ep & Hin & Hlp)].
    - destruct (root_links _ _ HR sib Hl Hr) as (o' & Ho' & _ & _ & En). assert (o' = o) by congruence. subst o'. left. exact En.
    - destruct (in_split _ _ Hin) as (l1 & l2 & Ek).
      destruct (sibling_links _ _ HR _ l1 sib l2 Hlp Ek) as (o' & Ho' & _ & _ & _ & En & _).
      assert (o' = o) by congruence. subst o'. rewrite En.
      destruct l2 as [|y l2']; [left; reflexivity|right]. cbn [hd].
      assert (Hy : In y (kids g (o_parent o))) by (rewrite Ek; apply in_or_app; right; right; left; reflexivity).
      split; [apply ((R_gwf _ _ HR) _ _ Hy)|]. split.
      + pose proof (Hsuf _ _ _ _ Ek HS) as F. inversion F; auto.
      + intros Hd. pose proof (sibling_not_desc _ _ HR _ _ _ Hin Hy Hd) as E. subst y.
        destruct (TI_live_get _ _ _ HT Hlp) as (po & Hpo & Hlpo).
        destruct (R_kids _ _ HR _ _ Hpo Hlpo) as (_ & _ & _ & Hnd).
        rewrite Ek in Hnd. apply NoDup_remove_2 in Hnd. apply Hnd. apply in_or_app. right. left. reflexivity. }
  apply wp_bind. eapply wp_weaken; [apply (IHc sib s g H Hl)|auto|].
  intros r s1 (g1 & H1 & Ev1).
  assert (Hsub : forall y, desc g sib y -> S y) by (intros y Hy; eapply desc_in_closed; eauto).
  assert (Ev1S : evolve S g g1) by (eapply evolve_weaken; eauto).
  assert (Hsuf1 : suffixes S g1) by (eapply evolve_suffixes; [|exact Ev1S|exact Hsuf]; auto).
  assert (Hcl1 : closed g1 S) by (eapply evolve_closed; [|exact Ev1S|exact Hcl]; auto).
  assert (Hnx1 : o_next o = InvalidIndex \/ (glive g1 (o_next o) /\ S (o_next o))).
  { destruct Hnx as [E|(A & B & C)]; [left; exact E|right]. split; [|exact B]. apply (ev_keep _ _ _ Ev1); auto. }
  assert (Hfin : forall res', wp True (mergeScope_loop fuel (o_next o) res') s1 (fun _ s' => exists g', MI NoX s' g' /\ evolve S g g')).
  { intros res'. eapply wp_weaken; [apply (IHl S (o_next o) res' s1 g1 H1 Hsuf1 Hcl1 Hnx1)|auto|].
    intros r' s' (g' & H' & Ev'). exists g'. split; auto. eapply evolve_trans; eauto. }
  destruct r; try apply Hfin.
  apply wp_ret. exists g1. split; auto.
Qed.

Lemma nodup_bound (l : list N) n : NoDup l -> (forall y, In y l -> y < N.of_nat n) -> (length l <= n)%nat.
Proof.
  intros Hnd Hb. rewrite <- (map_length N.to_nat l), <- (seq_length n 0). apply NoDup_incl_length.
  - apply FinFun.Injective_map_NoDup; [intros a b; apply N2Nat.inj|exact Hnd].
  - intros z Hz. apply in_map_iff in Hz. destruct Hz as (y & <- & Hy). apply in_seq. specialize (Hb y Hy). lia.
Qed.

Lemma MI_unX x s g : MI (fun y => y = x) s g -> (forall o, tget (p_tree s) x = Some o -> o_opcode o = opFreed) -> MI NoX s g.
Proof.
  intros [A B C D E F] Hfr. constructor; auto. intros x' xo Hg Hop Hh _. apply (E x' xo Hg Hop Hh).
  intros ->. specialize (Hfr _ Hg). rewrite Hop in Hfr. discriminate.
Qed.

Lemma step_M fuel : ML_spec fuel -> M_spec (S fuel).
Proof.
  intros IHl x s g H Hl. cbn [mergeScopeDirectives].
  pose proof (mi_TI _ _ _ H) as HT. pose proof (ti_R _ _ HT) as HR.
  apply wp_bind. apply wp_objectAt'; [apply (TI_ObjectAt _ _ _ HT Hl)|].
  destruct (TI_live_get _ _ _ HT Hl) as (xo & Hxo & Hlxo).
  apply wp_bind. apply wp_rdf. exists xo. split; [exact Hxo|].
  assert (Hcnt : forall (Q : unit -> pstate -> Prop),
     (forall s1, MI NoX s1 g -> p_tree s1 = p_tree s -> Q tt s1) ->
     wp True (if x =? 0 then fun s0 => Ok (tt, with_counters s0 (p_resolvePasses s0) 0 (p_relocatedObjects s0)) else ret tt) s Q).
  { intros Q K. destruct (x =? 0); [apply wp_counters|apply wp_ret]; apply K; auto. apply MI_counters. exact H. }
  apply wp_bind. apply Hcnt. intros s1 H1 Et1. clear Hcnt.
  assert (Hxo1 : tget (p_tree s1) x = Some xo) by (rewrite Et1; exact Hxo).
  pose proof (mi_TI _ _ _ H1) as HT1. pose proof (ti_R _ _ HT1) as HR1.
  apply wp_bind. apply wp_rdo. exists xo. split; [exact Hxo1|].
  pose proof (ti_info _ _ HT1 _ _ Hxo1 Hlxo) as Hinfo.
  destruct (opInfo (o_infoIndex xo)) as [[[op fl] af]|] eqn:Erow; [|contradiction].
  apply wp_bind. eapply wp_info; [exact Erow|]. cbv beta iota.
  set (Qf := fun (r : pres) s' => exists g', MI NoX s' g' /\ evolve (desc g x) g g').
  destruct (hasFlag fl aml_pOpFlagExecutable).
  { apply wp_ret. exists g. split; auto. apply evolve_refl. }
  apply wp_bind, wp_get.
  assert (Hloopx : forall s2 g2 (S : N -> Prop) first, MI NoX s2 g2 -> suffixes S g2 -> closed g2 S ->
     (first = InvalidIndex \/ (glive g2 first /\ S first)) -> evolve (desc g x) g g2 -> (forall y, S y -> desc g x y) ->
     wp True (mergeScope_loop fuel first ROk) s2 Qf).
  { intros s2 g2 S first H2 Hsuf Hcl Hfirst Ev2 Hsub.
    eapply wp_weaken; [apply (IHl S first ROk s2 g2 H2 Hsuf Hcl Hfirst)|auto|].
    intros r s' (g' & H' & Ev'). exists g'. split; auto. eapply evolve_trans; [exact Ev2|]. eapply evolve_weaken; eauto. }
  assert (Hfail : forall r : pres, wp True (ret (inl r : pres + N)) s1
     (fun r0 s' => wp True (match r0 with inl res => ret res | inr f => mergeScope_loop fuel f ROk end) s' Qf)).
  { intros r. apply wp_ret. apply wp_ret. exists g. split; auto. apply evolve_refl. }
  destruct (R_kids _ _ HR1 _ _ Hxo1 Hlxo) as (Hfirst & Hlast & _).
  apply wp_bind.
  destruct ((o_opcode xo =? aml_pOpScope) && (o_tableHandle xo =? p_handle s1)) eqn:Econd.
  2:{ apply wp_ret. rewrite Hfirst.
      apply (Hloopx s1 g (sdesc g x)); auto.
      - apply (sdesc_suffixes _ _ HR1).
      - apply sdesc_closed.
      - destruct (kids g x) as [|c0 l0] eqn:Ek; [left; reflexivity|right]. cbn [hd].
        assert (Hc0 : In c0 (kids g x)) by (rewrite Ek; left; reflexivity).
        split; [apply ((R_gwf _ _ HR1) _ _ Hc0)|]. exists c0. split; [exact Hc0|constructor].
      - apply evolve_refl.
      - apply sdesc_desc. }
  apply andb_prop in Econd. destruct Econd as (Eop & Eh). apply N.eqb_eq in Eop. apply N.eqb_eq in Eh.
  destruct (mi_ty _ _ _ H1 x xo Hxo1 Eop Eh (fun F => F)) as (Hnl & _ & n & c & no & co & tbl & sl & K1 & K2 & K3 & K4 & K5 & K6 & K7 & K8 & K9).
  rewrite K1 in Hfirst, Hlast. cbn [hd last] in Hfirst, Hlast.
  assert (Hin_n : In n (kids g x)) by (rewrite K1; left; reflexivity).
  assert (Hin_c : In c (kids g x)) by (rewrite K1; right; left; reflexivity).
  destruct ((R_gwf _ _ HR1) _ _ Hin_n) as (_ & Hln). destruct ((R_gwf _ _ HR1) _ _ Hin_c) as (_ & Hlc).
  assert (En : (o_first xo =? InvalidIndex) = false).
  { rewrite Hfirst. apply N.eqb_neq. eapply (R_pos_not_Inv _ _ HR1); eauto. }
  rewrite En, Hfirst.
  apply wp_bind. apply wp_objectAt'; [apply (TI_ObjectAt _ _ _ HT1 Hln)|].
  apply wp_bind. apply wp_rdo. exists no. split; [exact K3|]. rewrite K6.
  assert (Hsl : slice_ok (p_tables s1) tbl sl).
  { pose proof (pool_ok_get _ _ _ _ (ti_pool _ _ HT1) K3) as Hv. rewrite K6 in Hv. exact Hv. }
  destruct (slice_bytes_ok s1 tbl sl Hsl) as (bytes & Eb & _).
  apply wp_bind. eapply wp_bytesOf; [exact Eb|].
  pose proof (K7 s1 bytes eq_refl Eb) as Hgood.
  assert (Hx0 : x <> 0).
  { intros ->. destruct (mi_sb0 _ _ _ H1) as (ro & Hro & Ero). assert (ro = xo) by congruence. subst ro.
    rewrite Eop in Ero. discriminate. }
  destruct (directive_target NoX s1 g x xo bytes H1 Hxo1 Hlxo Hnl Hx0 Hgood) as (target & Efind & Htarget).
  apply wp_bind. eapply wp_tq; [exact Efind|].
  destruct (N.eqb_spec target InvalidIndex) as [Et|Et].
  { apply wp_bind, wp_get. apply wp_bind, wp_get. destruct ((1 <? p_resolvePasses s1) && (p_relocatedObjects s1 =? 0)); apply Hfail. }
  destruct Htarget as [?|(Hlt & Hout)]; [contradiction|].
  apply wp_bind. eapply wp_weaken; [apply (scopeOf_spec2 target s1 g HT1 Hlt)|auto|].
  intros tgt s1' (-> & Htgt).
  destruct tgt as [tg|]; [|apply Hfail].
  destruct (Htgt tg eq_refl) as (Htg_where & Htg_sb). clear Htgt.
  assert (Hc_sb : is_sb s1 c) by (exists co; auto).
  assert (Hxc : desc g x c) by (eapply desc_step; [constructor|exact Hin_c]).
  assert (Houtg : ~ desc g x tg).
  { destruct Htg_where as [->|Hin]; [exact Hout|]. intros Hd. destruct Hd as [|p' c' Hd Hin'].
    - destruct Htg_sb as (o' & Ho' & Eo'). assert (o' = xo) by congruence. subst o'. rewrite Eop in Eo'. discriminate.
    - assert (p' = target) by (eapply (R_parent_unique _ _ HR1); eauto). subst p'. contradiction. }
  assert (Hltg : glive g tg).
  { destruct Htg_where as [->|Hin]; [exact Hlt|]. apply ((R_gwf _ _ HR1) _ _ Hin). }
  apply wp_bind. apply wp_rdf. exists xo. split; [exact Hxo1|]. rewrite Hlast.
  apply wp_bind. apply wp_objectAt'; [apply (TI_ObjectAt _ _ _ HT1 Hlc)|].
  assert (Hlco : o_opcode co <> opFreed) by (rewrite K9; discriminate).
  apply wp_bind. apply wp_rdf. exists co. split; [exact K8|].
  destruct (R_kids _ _ HR1 _ _ K8 Hlco) as (Hfc & _ & _ & Hndc). rewrite Hfc.
  apply wp_bind, wp_get.
  set (ms := kids g c) in *.
  assert (Hms_desc : forall m, In m ms -> desc g x m) by (intros m Hm; eapply desc_step; [exact Hxc|exact Hm]).
  assert (Hctg : c <> tg) by (intros ->; contradiction).
  assert (Hxtg : x <> tg) by (intros ->; apply Houtg; constructor).
  assert (Hxc_ne : x <> c) by (intros E; eapply (R_child_neq_parent _ _ HR1); [exact Hin_c|symmetry; exact E]).
  assert (Hnc_ne : n <> c).
  { intros ->. apply K4. rewrite K9 in *. assert (no = co) by congruence. subst. exact K9. }
  assert (Hntg : n <> tg).
  { intros ->. destruct Htg_sb as (o' & Ho' & Eo'). assert (o' = no) by congruence. subst. contradiction. }
  assert (Hxn_ne : x <> n) by (intros E; eapply (R_child_neq_parent _ _ HR1); [exact Hin_n|symmetry; exact E]).
  set (X := fun y : N => y = x).
  assert (H1X : MI X s1 g) by (eapply MI_weaken; [|exact H1]; intros y F; destruct F).
  apply wp_bind. eapply (move_all True X c tg ms _ s1 g); [| exact H1X | reflexivity | exact Hltg | exact Hc_sb | exact Htg_sb | exact Hctg | | ].
  { assert (length ms <= length (t_pool (p_tree s1)))%nat; [|lia].
    apply nodup_bound; [exact Hndc|]. intros y Hy. rewrite <- (R_len _ _ HR1). eapply glive_lt. apply ((R_gwf _ _ HR1) _ _ Hy). }
  { intros m Hm Hd. apply Houtg. eapply desc_trans; [apply Hms_desc; exact Hm|exact Hd]. }
  intros s2 g2 H2 Hkc2 Hko2 Hktg2 Hev2 Hpf2 S2.
  pose proof (mi_TI _ _ _ H2) as HT2. pose proof (ti_R _ _ HT2) as HR2.
  assert (Hkx2 : kids g2 x = [n; c]) by (rewrite Hko2; auto).
  assert (Hkn2 : kids g2 n = []) by (rewrite Hko2; auto).
  (* free the name *)
  destruct (proj2 Hpf2 _ _ Hxo1) as (xo2 & Hxo2 & Exo2 & _).
  apply wp_bind. apply (MI_free True X n s2 g2); [exact H2| | exact Hkn2 | | | |].
  { apply (shape_eq_glive _ _ _ S2). exact Hln. }
  { intros ->. apply (mi_root0 _ _ _ H1 x). exact Hin_n. }
  { right. exists x, xo2. split; [rewrite Hkx2; left; reflexivity|]. split; [exact Hxo2|congruence]. }
  { intros x' xo' _ _ _ HX' _ Hin'. apply HX'. eapply (R_parent_unique _ _ HR2); [exact Hin'|]. rewrite Hkx2. left. reflexivity. }
  intros t3 g3 H3 Hk3 Hl3 Hev3 Hff3 _.
  pose proof (mi_TI _ _ _ H3) as HT3. pose proof (ti_R _ _ HT3) as HR3.
  assert (Hkx3 : kids g3 x = [c]) by (rewrite Hk3, Hkx2; cbn [remove1]; rewrite N.eqb_refl; reflexivity).
  assert (Hkc3 : kids g3 c = []) by (rewrite Hk3, Hkc2; reflexivity).
  (* free the block *)
  destruct (proj2 Hff3 _ _ Hxo2) as (xo3 & Hxo3 & _ & Fxo3). destruct (Fxo3 Hxn_ne) as (Exo3 & _).
  apply wp_bind. apply (MI_free True X c (with_tree s2 t3) g3); [exact H3| | exact Hkc3 | | | |].
  { apply Hl3. split; [apply (shape_eq_glive _ _ _ S2); exact Hlc|]. intros E. apply Hnc_ne. symmetry. exact E. }
  { intros ->. apply (mi_root0 _ _ _ H1 x). exact Hin_c. }
  { right. exists x, xo3. split; [rewrite Hkx3; left; reflexivity|]. split; [exact Hxo3|congruence]. }
  { intros x' xo' _ _ _ HX' _ Hin'. apply HX'. eapply (R_parent_unique _ _ HR3); [exact Hin'|]. rewrite Hkx3. left. reflexivity. }
  intros t4 g4 H4 Hk4 Hl4 Hev4 Hff4 _.
  pose proof (mi_TI _ _ _ H4) as HT4. pose proof (ti_R _ _ HT4) as HR4.
  assert (Hkx4 : kids g4 x = []) by (rewrite Hk4, Hkx3; cbn [remove1]; rewrite N.eqb_refl; reflexivity).
  (* the directive itself still is a Scope object *)
  assert (Hxo4 : exists xo4, tget t4 x = Some xo4 /\ o_opcode xo4 = aml_pOpScope).
  { destruct (proj2 Hpf2 _ _ Hxo1) as (o2 & Ho2 & E2 & _).
    destruct (proj2 Hff3 _ _ Ho2) as (o3 & Ho3 & _ & F3). destruct (F3 Hxn_ne) as (E3 & _).
    destruct (proj2 Hff4 _ _ Ho3) as (o4 & Ho4 & _ & F4). destruct (F4 Hxc_ne) as (E4 & _).
    exists o4. split; [exact Ho4|congruence]. }
  destruct Hxo4 as (xo4 & Hxo4 & Eop4).
  assert (Hlx4 : glive g4 x).
  { apply Hl4. split; [|exact Hxc_ne]. apply Hl3. split; [|exact Hxn_ne]. apply (shape_eq_glive _ _ _ S2). exact Hl. }
  apply wp_bind. apply (MI_free True X x (with_tree (with_tree s2 t3) t4) g4); [exact H4| exact Hlx4 | exact Hkx4 | exact Hx0 | | |].
  { left. exists xo4. split; [exact Hxo4|exact Eop4]. }
  { intros x' xo' Hx' Hop' Hh' HX' _ Hin'.
    destruct (mi_ty _ _ _ H4 x' xo' Hx' Hop' Hh' HX') as (_ & _ & n' & c' & no' & co' & tbl' & sl' & J1 & _ & J3 & _ & J5 & _ & _ & J8 & J9).
    rewrite J1 in Hin'. cbn [In] in Hin'. destruct Hin' as [E|[E|[]]]; subst.
    - assert (no' = xo4) by (cbn [p_tree with_tree] in J3; congruence). subst. contradiction.
    - assert (co' = xo4) by (cbn [p_tree with_tree] in J8; congruence). subst. rewrite Eop4 in J9. discriminate. }
  intros t5 g5 H5 Hk5 Hl5 Hev5 Hff5 Hfr5.
  apply wp_bind. apply wp_counters.
  set (s5 := with_tree (with_tree (with_tree s2 t3) t4) t5) in *.
  assert (H5' : MI NoX s5 g5) by (apply (MI_unX x); [exact H5|exact Hfr5]).
  apply wp_ret.
  (* the loop over the moved objects *)
  assert (HkS : forall S : N -> Prop, (forall m, In m ms -> S m) -> kev S g g5).
  { intros S HS. eapply kev_trans; [apply (ev_kids _ _ _ (Hev2 S HS))|].
    eapply kev_trans; [apply (kev_remove1 S g2 g3 n Hk3)|]. eapply kev_trans; [apply (kev_remove1 S g3 g4 c Hk4)|apply (kev_remove1 S g4 g5 x Hk5)]. }
  assert (HmsS : forall m, In m ms -> sdesc g c m) by (intros m Hm; exists m; split; [exact Hm|constructor]).
  apply (Hloopx _ g5 (sdesc g c)).
  - apply MI_counters. exact H5'.
  - eapply kev_suffixes; [|apply (HkS _ HmsS)|apply (sdesc_suffixes _ _ HR1)]. auto.
  - eapply kev_closed; [|apply (HkS _ HmsS)|apply sdesc_closed]. auto.
  - destruct ms as [|m rest] eqn:Ems; [left; reflexivity|right]. cbn [hd].
    assert (Hm : In m (kids g c)) by (fold ms; rewrite Ems; left; reflexivity).
    split; [|apply HmsS; left; reflexivity].
    apply Hl5. split.
    + apply Hl4. split.
      * apply Hl3. split; [apply (shape_eq_glive _ _ _ S2); apply ((R_gwf _ _ HR1) _ _ Hm)|].
        intros E. subst m. apply Hxc_ne. apply (R_parent_unique _ _ HR1 x c n Hin_n Hm).
      * apply (R_child_neq_parent _ _ HR1 _ _ Hm).
    + intros ->. apply (child_not_desc _ _ HR1 _ _ Hin_c). eapply desc_step; [constructor|exact Hm].
  - eapply evolve_trans; [apply (Hev2 _ Hms_desc)|].
    eapply evolve_trans; [apply Hev3; eapply desc_step; [constructor|exact Hin_n]|].
    eapply evolve_trans; [apply Hev4; exact Hxc|apply Hev5; constructor].
  - intros y (c0 & Hc0 & Hd). eapply desc_trans; [|exact Hd]. eapply desc_step; [exact Hxc|exact Hc0].
Qed.

Lemma merge_all : forall fuel, M_spec fuel /\ ML_spec fuel.
Proof.
  induction fuel as [|fuel (IHc & IHl)].
  - split; intro; intros; cbn [mergeScopeDirectives mergeScope_loop]; apply wp_outOfFuel; exact I.
  - split; [apply step_M; exact IHl|apply step_ML; assumption].
Qed.
End MergeK.

Definition KTs : pstate -> ghost -> Prop := fun _ _ => True.

Lemma merge_plain fuel x s g : MI KTs NoX s g -> glive g x ->
  wp True (mergeScopeDirectives fuel x) s (fun _ s' => exists g', MI KTs NoX s' g' /\
    (forall y, glive g' y -> glive g y) /\ (forall y, glive g y -> ~ desc g x y -> glive g' y)).
Proof.
  intros H Hl. eapply wp_weaken; [apply (merge_all KTs); [intros; exact I..|exact H|exact Hl]|auto|].
  intros r s' (g' & H' & Ev). exists g'. split; [exact H'|]. split; [apply (ev_live _ _ _ Ev)|apply (ev_keep _ _ _ Ev)].
Qed.

(** ---- the hypotheses are satisfiable: the root, \_SB_, and a directive Scope(_SB_) { Zero } of table 1 ---- *)
Definition mex_ops : list op :=
  [ OpNewNamed opScopeBlock 0 (0x5c, 0, 0, 0);              (* 0: \ *)
    OpNewNamed opScopeBlock 0 (0x5f, 0x53, 0x42, 0x5f);     (* 1: _SB_ *)
    OpNew aml_pOpScope 1;                                    (* 2: the directive *)
    OpNew aml_pOpIntNamePath 1;                              (* 3: its target path *)
    OpNew opScopeBlock 1;                                    (* 4: its block *)
    OpNew aml_pOpZero 1;                                     (* 5: the contents *)
    OpAppend 0 1; OpAppend 2 3; OpAppend 2 4; OpAppend 4 5; OpAppend 0 2 ].

Definition mex_tree : T :=
  match run (@NewObjectTree value) mex_ops with
  | Ok t => tset t 3 (set_value (Some (VBytes 0 (mkSlice (Some 0) 4))))
  | _ => NewObjectTree
  end.
Definition mex_ghost : ghost := arun ghost0 mex_ops.
Definition mex_state : pstate := mkP (init_reader [] 0) mex_tree [] [] 0 0 0 0 false 1 [[0x5f; 0x53; 0x42; 0x5f]].

Lemma groot_chk g i : forallb (fun l => negb (existsb (N.eqb i) l)) (g_kids g) = true -> groot g i.
Proof.
  intros H p Hin. unfold kids in Hin.
  destruct (Nat.ltb_spec (N.to_nat p) (length (g_kids g))) as [Hlt|Hge].
  - rewrite forallb_forall in H. specialize (H _ (nth_In _ [] Hlt)).
    apply negb_true_iff in H. apply existsb_eqb_In in Hin. congruence.
  - rewrite nth_overflow in Hin by lia. contradiction.
Qed.

Lemma not_desc_chk g a x (S : list N) :
  existsb (N.eqb a) S = true ->
  forallb (fun p => forallb (fun c => existsb (N.eqb c) S) (kids g p)) S = true ->
  existsb (N.eqb x) S = false -> ~ desc g a x.
Proof.
  intros Ha Hc Hx Hd. assert (Hin : In x S).
  { clear Hx. induction Hd as [|p c Hd IH Hk]; [apply existsb_eqb_In; exact Ha|].
    rewrite forallb_forall in Hc. specialize (Hc _ IH). rewrite forallb_forall in Hc.
    apply existsb_eqb_In. apply Hc. exact Hk. }
  apply existsb_eqb_In in Hin. congruence.
Qed.

Lemma mex_legal : legal_seq ghost0 mex_ops.
Proof.
  unfold mex_ops. cbn [legal_seq].
  repeat match goal with |- _ /\ _ => split end; cbn [legal]; try exact I;
  try (split; [vm_compute; discriminate | split; [first [left; vm_compute; discriminate | right; vm_compute; reflexivity] | intros _; vm_compute; reflexivity]]).
  - split; [split; [vm_compute; reflexivity | vm_compute; intuition discriminate]|].
    split; [split; [vm_compute; reflexivity | vm_compute; intuition discriminate]|].
    split; [apply groot_chk; vm_compute; reflexivity|apply (not_desc_chk _ _ _ [1]); vm_compute; reflexivity].
  - split; [split; [vm_compute; reflexivity | vm_compute; intuition discriminate]|].
    split; [split; [vm_compute; reflexivity | vm_compute; intuition discriminate]|].
    split; [apply groot_chk; vm_compute; reflexivity|apply (not_desc_chk _ _ _ [3]); vm_compute; reflexivity].
  - split; [split; [vm_compute; reflexivity | vm_compute; intuition discriminate]|].
    split; [split; [vm_compute; reflexivity | vm_compute; intuition discriminate]|].
    split; [apply groot_chk; vm_compute; reflexivity|apply (not_desc_chk _ _ _ [4]); vm_compute; reflexivity].
  - split; [split; [vm_compute; reflexivity | vm_compute; intuition discriminate]|].
    split; [split; [vm_compute; reflexivity | vm_compute; intuition discriminate]|].
    split; [apply groot_chk; vm_compute; reflexivity|apply (not_desc_chk _ _ _ [5]); vm_compute; reflexivity].
  - split; [split; [vm_compute; reflexivity | vm_compute; intuition discriminate]|].
    split; [split; [vm_compute; reflexivity | vm_compute; intuition discriminate]|].
    split; [apply groot_chk; vm_compute; reflexivity|apply (not_desc_chk _ _ _ [2; 3; 4; 5]); vm_compute; reflexivity].
Qed.

Lemma mex_R : R mex_tree mex_ghost.
Proof.
  destruct (run_R mex_ops (@NewObjectTree value) ghost0 R_empty mex_legal) as (t' & Hrun & HR').
  unfold mex_tree, mex_ghost. rewrite Hrun. apply R_tset_lk; [exact HR'|].
  intros o _. unfold lk_eq, set_value. cbn. tauto.
Qed.

Lemma pool_cases (t : T) (P : N -> Object value -> Prop) :
  (forall n o, nth_error (t_pool t) n = Some o -> P (N.of_nat n) o) -> forall i o, tget t i = Some o -> P i o.
Proof. intros H i o Hg. unfold TreeSpec.get in Hg. specialize (H _ _ Hg). rewrite N2Nat.id in H. exact H. Qed.

Definition mex_dir_ok (d : N) (dobj : Object value) : Prop :=
  o_opcode dobj = aml_pOpScope -> o_tableHandle dobj = 1 ->
  name_lead (o_name dobj) = false /\
  (forall op fl af, opInfo (o_infoIndex dobj) = Some (op, fl, af) -> hasFlag fl aml_pOpFlagNamed = false) /\
  exists n c no co tbl sl,
    kids mex_ghost d = [n; c] /\ kids mex_ghost n = [] /\
    tget mex_tree n = Some no /\ o_opcode no <> aml_pOpIntScopeBlock /\ o_opcode no <> aml_pOpScope /\
    o_value no = Some (VBytes tbl sl) /\
    (forall s0 bytes, p_tables s0 = [[0x5f; 0x53; 0x42; 0x5f]] -> slice_bytes s0 tbl sl = Ok bytes -> good_path bytes) /\
    tget mex_tree c = Some co /\ o_opcode co = aml_pOpIntScopeBlock.

Lemma merge_hyps_example :
  exists (s : pstate) (g : ghost) (x : N),
    R (p_tree s) g /\ info_valid (p_tree s) /\ pool_ok (p_tables s) (p_tree s) /\
    glive g 0 /\ groot g 0 /\
    (exists o, tget (p_tree s) 0 = Some o /\ o_opcode o = aml_pOpIntScopeBlock) /\
    (forall d dobj, tget (p_tree s) d = Some dobj -> o_opcode dobj = aml_pOpScope -> o_tableHandle dobj = p_handle s ->
       name_lead (o_name dobj) = false /\
       (forall op fl af, opInfo (o_infoIndex dobj) = Some (op, fl, af) -> hasFlag fl aml_pOpFlagNamed = false) /\
       exists n c no co tbl sl,
         kids g d = [n; c] /\ kids g n = [] /\
         tget (p_tree s) n = Some no /\ o_opcode no <> aml_pOpIntScopeBlock /\ o_opcode no <> aml_pOpScope /\
         o_value no = Some (VBytes tbl sl) /\
         (forall s0 bytes, p_tables s0 = p_tables s -> slice_bytes s0 tbl sl = Ok bytes -> good_path bytes) /\
         tget (p_tree s) c = Some co /\ o_opcode co = aml_pOpIntScopeBlock) /\
    glive g x /\
    (exists dobj, tget (p_tree s) 2 = Some dobj /\ o_opcode dobj = aml_pOpScope /\ o_tableHandle dobj = p_handle s) /\
    match mergeScopeDirectives 10 x s with Ok (r, s') => r = ROk /\ p_mergedScopes s' = 1 | _ => False end.
Proof.
  exists mex_state, mex_ghost, 0. cbn [p_tree p_tables p_handle mex_state].
  split; [exact mex_R|].
  split.
  { unfold info_valid. apply (pool_cases mex_tree (fun i o => o_opcode o <> opFreed -> opInfo (o_infoIndex o) <> None)). intros n o Hn.
    do 6 (destruct n as [|n]; [vm_compute in Hn; inversion Hn; subst o; intros _; vm_compute; discriminate|]).
    vm_compute in Hn. destruct n; discriminate. }
  split.
  { unfold pool_ok. rewrite Forall_forall. intros o Hin. destruct (In_nth_error _ _ Hin) as (n & Hn).
    do 6 (destruct n as [|n]; [vm_compute in Hn; inversion Hn; subst o; unfold value_ok; cbn [o_value];
      first [exact I | exists [0x5f; 0x53; 0x42; 0x5f]; split; [reflexivity|]; right; exists 0; split; [reflexivity|]; vm_compute; discriminate]|]).
    vm_compute in Hn. destruct n; discriminate. }
  split; [split; [vm_compute; reflexivity|vm_compute; intuition discriminate]|].
  split; [apply groot_chk; vm_compute; reflexivity|].
  split; [eexists; split; [vm_compute; reflexivity|reflexivity]|].
  split.
  { apply (pool_cases mex_tree mex_dir_ok). intros n o Hn. unfold mex_dir_ok.
    do 6 (destruct n as [|n]; [vm_compute in Hn; inversion Hn; subst o; intros Hop Hh;
      first [ vm_compute in Hop; discriminate
            | split; [reflexivity|]; split; [intros op fl af Hrow; vm_compute in Hrow; inversion Hrow; reflexivity|];
              eexists 3, 4, _, _, 0, (mkSlice (Some 0) 4);
              split; [vm_compute; reflexivity|]; split; [vm_compute; reflexivity|];
              split; [vm_compute; reflexivity|]; split; [vm_compute; discriminate|]; split; [vm_compute; discriminate|];
              split; [reflexivity|]; split;
              [ intros s0 bytes Ht Hb; unfold slice_bytes in Hb; rewrite Ht in Hb; vm_compute in Hb; inversion Hb; left; reflexivity
              | split; [vm_compute; reflexivity|reflexivity] ] ]|]).
    vm_compute in Hn. destruct n; discriminate. }
  split; [split; [vm_compute; reflexivity|vm_compute; intuition discriminate]|].
  split; [eexists; split; [vm_compute; reflexivity|split; reflexivity]|].
  vm_compute. split; reflexivity.
Qed.
