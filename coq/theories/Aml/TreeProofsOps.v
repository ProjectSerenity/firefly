(** C13 proofs, part 2: every legal edit preserves [R] and performs the list operation. *)
From Coq Require Import NArith ZArith List Bool Lia.
From Coq Require Import ZifyBool ZifyN ZifyNat.
From FF Require Import Lib.Word Gen.Consts_aml_tree Aml.Stream Aml.Tree Aml.TreeSpec Aml.TreeProofs.
Import ListNotations.
Local Open Scope N_scope.

(** ---- tactics for running the monadic code on trees built from [tset] ---- *)
Ltac fld := cbn [o_opcode o_infoIndex o_tableHandle o_name o_index o_parent o_prev o_next o_first o_last
                 o_amlOffset o_pkgEnd o_value set_opcode set_name set_parent set_prev set_next set_first
                 set_last set_value init_object option_map] in *.

Ltac neq_solve := solve [assumption | apply not_eq_sym; assumption | congruence].

Ltac gsimp :=
  repeat rewrite get_tset;
  repeat match goal with
  | |- context [N.eqb ?x ?x] => rewrite (N.eqb_refl x)
  | |- context [N.eqb ?x ?y] =>
      let H := fresh in assert (H : x <> y) by neq_solve; rewrite (proj2 (N.eqb_neq x y) H); clear H
  end.

Ltac gsimp_in Hg :=
  repeat rewrite get_tset in Hg;
  repeat match type of Hg with
  | context [N.eqb ?x ?x] => rewrite (N.eqb_refl x) in Hg
  | context [N.eqb ?x ?y] =>
      let H := fresh in assert (H : x <> y) by neq_solve; rewrite (proj2 (N.eqb_neq x y) H) in Hg; clear H
  end.

Ltac getok :=
  gsimp; repeat match goal with H : get _ _ = Some _ |- _ => rewrite H end; cbn [option_map]; reflexivity.
Ltac xrd := erewrite rd_ok by getok; cbn [bind]; fld.
Ltac xwr := erewrite wr_ok by getok; cbn [bind]; fld.

(** ---- modifications that only touch link fields of live objects ---- *)
Definition link_only {V} (t T : ObjectTree V) : Prop :=
  length (t_pool T) = length (t_pool t) /\ t_free T = t_free t /\
  forall i o, get t i = Some o -> exists o', get T i = Some o' /\ o_index o' = o_index o /\
     o_opcode o' = o_opcode o /\ o_name o' = o_name o /\ (o_opcode o = opFreed -> o' = o).

Lemma link_only_refl {V} (t : ObjectTree V) : link_only t t.
Proof. repeat split; auto. intros i o H. exists o. auto. Qed.

Lemma link_only_trans {V} (t1 t2 t3 : ObjectTree V) : link_only t1 t2 -> link_only t2 t3 -> link_only t1 t3.
Proof.
  intros (L1 & F1 & H1) (L2 & F2 & H2). repeat split; try congruence.
  intros i o Hg. destruct (H1 _ _ Hg) as (o' & Hg' & E1 & E2 & E3 & E4).
  destruct (H2 _ _ Hg') as (o'' & Hg'' & E1' & E2' & E3' & E4').
  exists o''. repeat split; try congruence. intros Hf. rewrite E4' by congruence. auto.
Qed.

Definition link_setter {V} (f : Object V -> Object V) : Prop :=
  forall o, o_index (f o) = o_index o /\ o_opcode (f o) = o_opcode o /\ o_name (f o) = o_name o.

Lemma link_only_tset {V} (t : ObjectTree V) p f po :
  get t p = Some po -> o_opcode po <> opFreed -> link_setter f -> link_only t (tset t p f).
Proof.
  intros Hp Hl Hf. repeat split; [apply tset_len|].
  intros i o Hg. rewrite get_tset. destruct (N.eqb_spec i p) as [->|Hne].
  - rewrite Hg. cbn [option_map]. exists (f o). destruct (Hf o) as (E1 & E2 & E3).
    repeat split; auto. intros Hfr. congruence.
  - exists o. auto.
Qed.

Lemma ls_parent {V} v : @link_setter V (set_parent v). Proof. intros o; auto. Qed.
Lemma ls_prev {V} v : @link_setter V (set_prev v). Proof. intros o; auto. Qed.
Lemma ls_next {V} v : @link_setter V (set_next v). Proof. intros o; auto. Qed.
Lemma ls_first {V} v : @link_setter V (set_first v). Proof. intros o; auto. Qed.
Lemma ls_last {V} v : @link_setter V (set_last v). Proof. intros o; auto. Qed.
Global Hint Resolve ls_parent ls_prev ls_next ls_first ls_last : ls.

Lemma link_only_inv {V} (t T : ObjectTree V) i o' :
  link_only t T -> get T i = Some o' ->
  exists o, get t i = Some o /\ o_index o' = o_index o /\ o_opcode o' = o_opcode o /\ o_name o' = o_name o /\
            (o_opcode o = opFreed -> o' = o).
Proof.
  intros (L & F & H) Hg. pose proof (get_lt _ _ _ Hg) as Hlt. rewrite L in Hlt.
  destruct (get_some _ _ Hlt) as (o & Ho). destruct (H _ _ Ho) as (o2 & Hg2 & E).
  assert (o2 = o') by congruence. subst. eauto.
Qed.

(** the clauses of R that only depend on the shape *)
Lemma link_only_freed_same {V} (t T : ObjectTree V) x o :
  link_only t T -> get t x = Some o -> o_opcode o = opFreed -> get T x = get t x.
Proof.
  intros (L & F & H) Hg Hf. destruct (H _ _ Hg) as (o' & Hg' & _ & _ & _ & E). rewrite Hg', Hg, E; auto.
Qed.

Lemma link_only_flist {V} (t T : ObjectTree V) g :
  R t g -> link_only t T -> fchain T (t_free T) (g_free g) /\ NoDup (g_free g).
Proof.
  intros HR HL. destruct (R_flist _ _ HR) as [Hc Hn]. split; auto.
  pose proof HL as (L & F & H). rewrite F. apply fchain_frame with (t := t); [|exact Hc].
  intros x Hin. destruct (fchain_In _ _ _ _ Hc Hin) as (o & Hg & Hf).
  eapply link_only_freed_same; eauto.
Qed.

(** rebuilding R after a modification of link fields *)
Lemma R_surgery {V} (t T : ObjectTree V) g g' :
  R t g -> link_only t T ->
  g_free g' = g_free g -> length (g_kids g') = length (g_kids g) ->
  (forall i o, get t i = Some o -> o_opcode o = opFreed -> kids g' i = []) ->
  (forall i o, get T i = Some o -> o_opcode o <> opFreed ->
      o_first o = hd InvalidIndex (kids g' i) /\ o_last o = last (kids g' i) InvalidIndex /\
      chain T i InvalidIndex (kids g' i) InvalidIndex /\ NoDup (kids g' i)) ->
  (forall i o, get T i = Some o -> o_opcode o <> opFreed ->
      if o_parent o =? InvalidIndex then o_prev o = InvalidIndex /\ o_next o = InvalidIndex
      else In i (kids g' (o_parent o))) ->
  (forall i o, get T i = Some o -> o_opcode o <> opFreed -> exists k, Depth T i k) ->
  R T g'.
Proof.
  intros HR HL Hfree Hlen Hfk Hkids Hup Hacyc.
  pose proof HL as (L & F & H).
  constructor; auto.
  - rewrite Hlen, L. apply (R_len _ _ HR).
  - rewrite L. apply (R_bound _ _ HR).
  - intros i o' Hg. destruct (link_only_inv _ _ _ _ HL Hg) as (o & Ho & E1 & _).
    rewrite E1. eapply R_index; eauto.
  - intros i o' Hg Hf. destruct (link_only_inv _ _ _ _ HL Hg) as (o & Ho & E1 & E2 & _ & E3).
    rewrite E2 in Hf. split; [eapply Hfk; eauto|]. rewrite Hfree. eapply R_freed; eauto.
  - rewrite Hfree. eapply link_only_flist; eauto.
Qed.

(** parent links decide depth: if [T] has the same parents as [t] along the chain from [i] ... *)
Lemma Depth_transfer {V} (t T : ObjectTree V) (P : N -> Prop) :
  (forall j o, P j -> get t j = Some o -> o_opcode o <> opFreed ->
      (exists o', get T j = Some o' /\ o_opcode o' <> opFreed /\ o_parent o' = o_parent o) /\
      (o_parent o <> InvalidIndex -> P (o_parent o))) ->
  forall i k, Depth t i k -> P i -> Depth T i k.
Proof.
  intros H i k Hd. induction Hd as [i o Hg Hl Hp | i o k Hg Hl Hp Hd IH]; intros HP.
  - destruct (H _ _ HP Hg Hl) as ((o' & Hg' & Hl' & Hp') & _). eapply Depth_root; eauto. congruence.
  - destruct (H _ _ HP Hg Hl) as ((o' & Hg' & Hl' & Hp') & HPp). eapply Depth_step; eauto; rewrite Hp'; auto.
Qed.

Lemma Depth_reparent {V} (t T : ObjectTree V) a ka :
  (forall j oj, j <> a -> get t j = Some oj ->
     exists oj', get T j = Some oj' /\ o_opcode oj' = o_opcode oj /\ o_parent oj' = o_parent oj) ->
  Depth T a ka -> forall i k, Depth t i k -> exists k', Depth T i k'.
Proof.
  intros HT Ha. induction 1 as [i oi Hg Hl Hp | i oi k Hg Hl Hp Hd IH];
    (destruct (N.eq_dec i a) as [->|Hne]; [eauto|]); destruct (HT _ _ Hne Hg) as (oi' & Hg' & E1 & E2).
  - exists 0%nat. eapply Depth_root with (o := oi'); [exact Hg' | congruence | congruence].
  - destruct IH as (k' & Hk'). exists (S k').
    eapply Depth_step with (o := oi'); [exact Hg' | congruence | congruence | rewrite E2; exact Hk'].
Qed.

(** ---- append ---- *)
Section Append.
Context {V : Type} (t : ObjectTree V) (g : ghost) (HR : R t g).
Variables (o a : N) (oo : Object V).
Hypotheses (Ho : get t o = Some oo) (Hol : o_opcode oo <> opFreed) (Hnd : ~ desc g a o).

Lemma desc_parent_chain x xo : get t x = Some xo -> o_opcode xo <> opFreed -> o_parent xo <> InvalidIndex ->
  desc g a (o_parent xo) -> desc g a x.
Proof.
  intros Hx Hxl Hxp Hd. eapply desc_step; eauto. eapply R_parent_live; eauto.
Qed.

(** objects outside the subtree of [a] keep their depth when [a] gets a parent *)
Lemma Depth_outside (T : ObjectTree V) :
  (forall j oj, j <> a -> get t j = Some oj ->
     exists oj', get T j = Some oj' /\ o_opcode oj' = o_opcode oj /\ o_parent oj' = o_parent oj) ->
  forall i k, Depth t i k -> ~ desc g a i -> Depth T i k.
Proof.
  intros HT. apply Depth_transfer with (P := fun j => ~ desc g a j).
  intros j oj HP Hg Hl. split.
  - assert (j <> a) by (intros ->; apply HP; constructor).
    destruct (HT _ _ H Hg) as (oj' & Hg' & E1 & E2). exists oj'. repeat split; congruence.
  - intros Hp Hd. apply HP. eapply desc_parent_chain; eauto.
Qed.

(** every object has a depth again after [a] has been hung below [o] *)
Lemma Depth_after_attach (T : ObjectTree V) :
  (forall j oj, j <> a -> get t j = Some oj ->
     exists oj', get T j = Some oj' /\ o_opcode oj' = o_opcode oj /\ o_parent oj' = o_parent oj) ->
  (exists ao', get T a = Some ao' /\ o_opcode ao' <> opFreed /\ o_parent ao' = o) ->
  forall i k, Depth t i k -> exists k', Depth T i k'.
Proof.
  intros HT (ao' & Ha' & Hal' & Hap').
  destruct (R_acyc _ _ HR _ _ Ho Hol) as (ko & Hdo).
  pose proof (Depth_outside T HT _ _ Hdo Hnd) as Hdo'.
  apply (Depth_reparent t T a (S ko) HT).
  eapply Depth_step with (o := ao');
    [exact Ha' | exact Hal' | rewrite Hap'; eapply (R_pos_not_Inv t g HR); eauto | rewrite Hap'; exact Hdo'].
Qed.
End Append.

Lemma last_In {A} (l : list A) x d : In (last (x :: l) d) (x :: l).
Proof.
  revert x; induction l as [|y l IH]; intros x; [left; reflexivity|].
  right. change (In (last (y :: l) d) (y :: l)). apply IH.
Qed.

(** ---- relinking the ends of a chain ---- *)
Lemma chain_relink {V} (t T : ObjectTree V) p prev prev' l nxt nxt' :
  NoDup l -> chain t p prev l nxt ->
  (forall c oc, In c l -> get t c = Some oc ->
      exists oc', get T c = Some oc' /\ o_opcode oc' = o_opcode oc /\ o_parent oc' = o_parent oc /\
        o_prev oc' = (if hd InvalidIndex l =? c then prev' else o_prev oc) /\
        o_next oc' = (if last l InvalidIndex =? c then nxt' else o_next oc)) ->
  chain T p prev' l nxt'.
Proof.
  revert prev prev'. induction l as [|c l IH]; intros prev prev' Hnd Hc H; [exact I|].
  cbn [chain] in *. destruct Hc as [(oc & Hg & Hl & Hp & Hpv & Hn) Hc].
  inversion Hnd as [|? ? Hnin Hnd']; subst.
  destruct (H c oc (or_introl eq_refl) Hg) as (oc' & Hg' & E1 & E2 & E3 & E4).
  cbn [hd] in E3. rewrite N.eqb_refl in E3.
  split.
  - exists oc'. repeat split; try congruence.
    destruct l as [|c' l'].
    + cbn [hd last] in *. rewrite N.eqb_refl in E4. exact E4.
    + change (last (c :: c' :: l') InvalidIndex) with (last (c' :: l') InvalidIndex) in E4.
      assert (Hne : last (c' :: l') InvalidIndex <> c).
      { intros E. apply Hnin. rewrite <- E. apply last_In. }
      apply N.eqb_neq in Hne. rewrite Hne in E4. cbn [hd] in *. congruence.
  - destruct l as [|c' l']; [exact I|].
    apply (IH c c Hnd' Hc). intros x ox Hin Hgx.
    destruct (H x ox (or_intror Hin) Hgx) as (ox' & Hgx' & F1 & F2 & F3 & F4).
    exists ox'. split; [exact Hgx'|]. split; [exact F1|]. split; [exact F2|]. split; [|exact F4].
    cbn [hd] in *. assert (Hxc : c <> x) by (intros ->; contradiction).
    apply N.eqb_neq in Hxc. rewrite Hxc in F3.
    destruct (N.eqb_spec c' x) as [->|Hne]; [|exact F3].
    (* the head of the rest keeps its prev = c *)
    destruct Hc as [(oc2 & Hg2 & _ & _ & Hpv2 & _) _]. congruence.
Qed.

Lemma chain_relink_tail {V} (t T : ObjectTree V) p prev l nxt nxt' :
  NoDup l -> chain t p prev l nxt ->
  (forall c oc, In c l -> get t c = Some oc ->
      exists oc', get T c = Some oc' /\ o_opcode oc' = o_opcode oc /\ o_parent oc' = o_parent oc /\
        o_prev oc' = o_prev oc /\ o_next oc' = (if last l InvalidIndex =? c then nxt' else o_next oc)) ->
  chain T p prev l nxt'.
Proof.
  intros Hnd Hc H. eapply chain_relink with (prev' := prev); eauto.
  intros c oc Hin Hg. destruct (H c oc Hin Hg) as (oc' & Hg' & E1 & E2 & E3 & E4).
  exists oc'. repeat split; auto.
  destruct (N.eqb_spec (hd InvalidIndex l) c) as [E|]; auto.
  destruct l as [|c0 l0]; [contradiction|]. cbn [hd] in E. subst c0.
  destruct Hc as [(oc2 & Hg2 & _ & _ & Hpv & _) _]. congruence.
Qed.

Lemma chain_last_next {V} (t : ObjectTree V) p nxt l :
  forall prev, chain t p prev l nxt -> l <> [] ->
  exists oc, get t (last l InvalidIndex) = Some oc /\ o_next oc = nxt.
Proof.
  induction l as [|c l IH]; intros prev Hc Hne; [congruence|].
  destruct l as [|c' l'].
  - destruct Hc as [(oc & Hg & _ & _ & _ & Hn) _]. exists oc. split; auto.
  - destruct Hc as [_ Hc]. change (last (c :: c' :: l') InvalidIndex) with (last (c' :: l') InvalidIndex).
    eapply IH; eauto. discriminate.
Qed.

Lemma chain_relink_head {V} (t T : ObjectTree V) p prev prev' l nxt :
  NoDup l -> chain t p prev l nxt ->
  (forall c oc, In c l -> get t c = Some oc ->
      exists oc', get T c = Some oc' /\ o_opcode oc' = o_opcode oc /\ o_parent oc' = o_parent oc /\
        o_prev oc' = (if hd InvalidIndex l =? c then prev' else o_prev oc) /\ o_next oc' = o_next oc) ->
  chain T p prev' l nxt.
Proof.
  intros Hnd Hc H. eapply chain_relink with (nxt' := nxt); eauto.
  intros c oc Hin Hg. destruct (H c oc Hin Hg) as (oc' & Hg' & E1 & E2 & E3 & E4).
  exists oc'. repeat split; auto.
  destruct (N.eqb_spec (last l InvalidIndex) c) as [E|]; auto.
  rewrite E4. destruct (chain_last_next _ _ _ _ _ Hc) as (oc2 & Hg2 & Hn2).
  { intros ->. contradiction. }
  rewrite E in Hg2. congruence.
Qed.

(** ---- small list facts ---- *)
Lemma hd_app_cons {A} (l1 l2 : list A) x d : hd d (l1 ++ x :: l2) = hd x l1.
Proof. destruct l1; reflexivity. Qed.

Lemma last_cons_default {A} (l : list A) x d : last (x :: l) d = last l x.
Proof.
  revert x d; induction l as [|y l IH]; intros x d; [reflexivity|].
  change (last (x :: y :: l) d) with (last (y :: l) d). rewrite (IH y d), (IH y x). reflexivity.
Qed.

Lemma last_app_cons {A} (l1 l2 : list A) x d : last (l1 ++ x :: l2) d = last l2 x.
Proof.
  induction l1 as [|y l1 IH]; cbn [app]; [apply last_cons_default|].
  destruct l1; cbn [app] in *; exact IH.
Qed.

Lemma hd_neq (l : list N) c d : c <> d -> ~ In c l -> hd d l <> c.
Proof. destruct l; cbn; intuition congruence. Qed.

Lemma last_neq (l : list N) c d : c <> d -> ~ In c l -> last l d <> c.
Proof.
  intros Hd Hn E. destruct l as [|x l]; [cbn in E; congruence|].
  apply Hn. rewrite <- E. apply last_In.
Qed.

Lemma ends_neq (l1 l2 : list N) c : c <> InvalidIndex -> ~ In c (l1 ++ l2) ->
  (hd InvalidIndex l2 =? c) = false /\ (last l1 InvalidIndex =? c) = false.
Proof.
  intros Hv Hn. split; apply N.eqb_neq; [apply hd_neq | apply last_neq]; auto; intros Hin; apply Hn; apply in_or_app; auto.
Qed.

From Coq Require Import Permutation.
Lemma NoDup_insert (l1 l2 : list N) a : NoDup (l1 ++ l2) -> ~ In a (l1 ++ l2) -> NoDup (l1 ++ a :: l2).
Proof.
  intros H Hn. eapply Permutation_NoDup; [apply Permutation_middle|]. constructor; auto.
Qed.

Lemma NoDup_app_l (l1 l2 : list N) : NoDup (l1 ++ l2) -> NoDup l1.
Proof.
  induction l1 as [|x l1 IH]; cbn [app]; intros H; [constructor|].
  inversion H; subst. constructor; auto. intros Hin. apply H2. apply in_or_app; auto.
Qed.

Lemma NoDup_app_r (l1 l2 : list N) : NoDup (l1 ++ l2) -> NoDup l2.
Proof. induction l1 as [|x l1 IH]; cbn [app]; intros H; auto. inversion H; auto. Qed.

Lemma NoDup_app_disjoint (l1 l2 : list N) x : NoDup (l1 ++ l2) -> In x l1 -> In x l2 -> False.
Proof.
  induction l1 as [|y l1 IH]; cbn [app]; intros H H1 H2; [contradiction|].
  inversion H; subst. destruct H1 as [->|H1]; [apply H4; apply in_or_app; auto|eauto].
Qed.

(** the child list of [o] changes between its parts [l1] and [l2]: the last of [l1] gets the next link [nx], the
    head of [l2] the prev link [pv]; [a] is the child that comes or goes, every other object keeps its links *)
Section Relink.
Context {V : Type} (t T : ObjectTree V) (g : ghost) (HR : R t g).
Variables (o a : N) (oo : Object V) (l1 l2 : list N) (pv nx : N).
Hypotheses (Ho : get t o = Some oo) (HL : link_only t T) (Honin : ~ In o (l1 ++ l2)).
Hypothesis Ho' : exists oo', get T o = Some oo' /\ o_parent oo' = o_parent oo /\ o_prev oo' = o_prev oo /\
                   o_next oo' = o_next oo.
Hypothesis Hc' : forall c oc, c <> a -> c <> o -> get t c = Some oc ->
   exists oc', get T c = Some oc' /\ o_parent oc' = o_parent oc /\ o_first oc' = o_first oc /\ o_last oc' = o_last oc /\
     o_prev oc' = (if hd InvalidIndex l2 =? c then pv else o_prev oc) /\
     o_next oc' = (if last l1 InvalidIndex =? c then nx else o_next oc).

Let Hvalid : forall c oc, get t c = Some oc -> c <> InvalidIndex.
Proof. intros. eapply R_pos_not_Inv; eauto. Qed.

Lemma relink_other c oc : c <> a -> get t c = Some oc ->
  exists oc', get T c = Some oc' /\ o_opcode oc' = o_opcode oc /\ o_parent oc' = o_parent oc /\
     o_prev oc' = (if hd InvalidIndex l2 =? c then pv else o_prev oc) /\
     o_next oc' = (if last l1 InvalidIndex =? c then nx else o_next oc).
Proof.
  intros Hca Hg. destruct HL as (_ & _ & HLg). destruct (HLg _ _ Hg) as (oc1 & Hg1 & _ & Eop & _).
  destruct (N.eq_dec c o) as [->|Hco].
  - destruct Ho' as (oo' & Hgo & E1 & E2 & E3). assert (oc = oo) by congruence. subst oc.
    exists oo'. split; auto. split; [congruence|]. split; auto.
    destruct (ends_neq l1 l2 o) as [H1 H2]; [eapply Hvalid; eauto | exact Honin |]. rewrite H1, H2. auto.
  - destruct (Hc' _ _ Hca Hco Hg) as (oc' & Hg' & E1 & E2 & E3 & E4 & E5).
    exists oc'. split; auto. split; [congruence|]. auto.
Qed.

Lemma relink_frame c oc : c <> a -> ~ In c (l1 ++ l2) -> get t c = Some oc ->
  exists oc', get T c = Some oc' /\ same_links oc oc'.
Proof.
  intros Hca Hnin Hg. destruct (relink_other _ _ Hca Hg) as (oc' & Hg' & E1 & E2 & E3 & E4).
  exists oc'. split; auto.
  destruct (ends_neq l1 l2 c) as [H1 H2]; [eapply Hvalid; eauto | exact Hnin |].
  rewrite H1 in E3. rewrite H2 in E4. repeat split; auto.
Qed.

Lemma relink_left prev nxt : NoDup (l1 ++ l2) -> ~ In a l1 -> chain t o prev l1 nxt -> chain T o prev l1 nx.
Proof.
  intros Hnd Ha1 Hc. eapply chain_relink_tail with (nxt' := nx); [eapply NoDup_app_l; eauto | exact Hc |].
  intros c oc Hin Hgc. assert (Hca : c <> a) by (intros ->; contradiction).
  destruct (relink_other _ _ Hca Hgc) as (oc' & Hg' & F1 & F2 & F3 & F4).
  exists oc'. repeat split; auto.
  assert (H1 : hd InvalidIndex l2 <> c).
  { apply hd_neq; [eapply Hvalid; eauto|]. intros Hin2. eapply NoDup_app_disjoint; eauto. }
  apply N.eqb_neq in H1. rewrite H1 in F3. exact F3.
Qed.

Lemma relink_right prev nxt : NoDup (l1 ++ l2) -> ~ In a l2 -> chain t o prev l2 nxt -> chain T o pv l2 nxt.
Proof.
  intros Hnd Ha2 Hc. eapply chain_relink_head with (prev' := pv); [eapply NoDup_app_r; eauto | exact Hc |].
  intros c oc Hin Hgc. assert (Hca : c <> a) by (intros ->; contradiction).
  destruct (relink_other _ _ Hca Hgc) as (oc' & Hg' & F1 & F2 & F3 & F4).
  exists oc'. repeat split; auto.
  assert (H2 : last l1 InvalidIndex <> c).
  { apply last_neq; [eapply Hvalid; eauto|]. intros Hin1. eapply NoDup_app_disjoint; eauto. }
  apply N.eqb_neq in H2. rewrite H2 in F4. exact F4.
Qed.
End Relink.

(** ---- inserting a detached object into a child list ---- *)
Section Insert.
Context {V : Type} (t T : ObjectTree V) (g : ghost) (HR : R t g).
Variables (o a : N) (oo ao : Object V) (l1 l2 : list N).
Hypotheses (Ho : get t o = Some oo) (Hol : o_opcode oo <> opFreed)
           (Ha : get t a = Some ao) (Hal : o_opcode ao <> opFreed)
           (Hap : o_parent ao = InvalidIndex) (Hnd : ~ desc g a o)
           (Hl : kids g o = l1 ++ l2)
           (HL : link_only t T).
Hypothesis Ha' : exists ao', get T a = Some ao' /\ o_parent ao' = o /\ o_prev ao' = last l1 InvalidIndex /\
                   o_next ao' = hd InvalidIndex l2 /\ o_first ao' = o_first ao /\ o_last ao' = o_last ao.
Hypothesis Ho' : exists oo', get T o = Some oo' /\ o_parent oo' = o_parent oo /\ o_prev oo' = o_prev oo /\
                   o_next oo' = o_next oo /\ o_first oo' = hd a l1 /\ o_last oo' = last l2 a.
Hypothesis Hc' : forall c oc, c <> a -> c <> o -> get t c = Some oc ->
   exists oc', get T c = Some oc' /\ o_parent oc' = o_parent oc /\ o_first oc' = o_first oc /\ o_last oc' = o_last oc /\
     o_prev oc' = (if hd InvalidIndex l2 =? c then a else o_prev oc) /\
     o_next oc' = (if last l1 InvalidIndex =? c then a else o_next oc).

Let Hoa : o <> a.
Proof. intros E. apply Hnd. rewrite E. constructor. Qed.

Let Holt : o < N.of_nat (length (g_kids g)).
Proof. rewrite (R_len _ _ HR). eapply get_lt; eauto. Qed.

Let Hanin : forall p, ~ In a (kids g p).
Proof. intros p. eapply R_root_not_child; eauto. Qed.

Let Honin : ~ In o (l1 ++ l2).
Proof. rewrite <- Hl. intros Hin. eapply (R_child_neq_parent t g HR); eauto. Qed.

Let Hvalid : forall c oc, get t c = Some oc -> c <> InvalidIndex.
Proof. intros. eapply R_pos_not_Inv; eauto. Qed.

Let Ho3 : exists oo', get T o = Some oo' /\ o_parent oo' = o_parent oo /\ o_prev oo' = o_prev oo /\ o_next oo' = o_next oo.
Proof. pose proof Ho' as (oo' & H & A & B & C & _). eauto. Qed.

Let ins_other := relink_other t T g HR o a oo l1 l2 a a Ho HL Honin Ho3 Hc'.
Let ins_frame := relink_frame t T g HR o a oo l1 l2 a a Ho HL Honin Ho3 Hc'.

Lemma insert_R : R T (set_kids g o (l1 ++ a :: l2)).
Proof.
  destruct (R_kids _ _ HR _ _ Ho Hol) as (Hfirst & Hlast & Hchain & Hnodup).
  rewrite Hl in Hfirst, Hlast, Hchain, Hnodup.
  apply R_surgery with (t := t) (g := g); auto.
  - apply set_kids_len.
  - intros i oi Hg Hf. rewrite kids_set_kids by auto.
    destruct (N.eqb_spec i o) as [->|Hne]; [congruence|]. eapply R_freed; eauto.
  - (* parent -> children *)
    intros i oi' Hg Hlv. rewrite kids_set_kids by auto.
    destruct (N.eqb_spec i o) as [->|Hne].
    + pose proof Ho' as (oo' & Hgo & E1 & E2 & E3 & E4 & E5). assert (oi' = oo') by congruence. subst oi'.
      rewrite hd_app_cons, last_app_cons. split; auto. split; auto. split.
      * apply chain_app in Hchain. destruct Hchain as [Hc1 Hc2].
        apply chain_app. cbn [hd chain]. split; [|split].
        -- eapply (relink_left t T g HR o a oo l1 l2 a a); eauto.
           intros Hin. apply (Hanin o). rewrite Hl. apply in_or_app; auto.
        -- destruct Ha' as (ao' & Hga & G1 & G2 & G3 & _).
           pose proof HL as (_ & _ & HLg). destruct (HLg _ _ Ha) as (ao2 & Hga2 & _ & Eop & _).
           exists ao'. repeat split; auto. congruence.
        -- eapply (relink_right t T g HR o a oo l1 l2 a a); eauto.
           intros Hin. apply (Hanin o). rewrite Hl. apply in_or_app; auto.
      * apply NoDup_insert; auto. rewrite <- Hl. apply Hanin.
    + destruct (link_only_inv _ _ _ _ HL Hg) as (oi & Hgi & _ & Eop & _).
      assert (Hlv0 : o_opcode oi <> opFreed) by congruence.
      destruct (R_kids _ _ HR _ _ Hgi Hlv0) as (Hf & Hla & Hch & Hnd').
      assert (Hfl : o_first oi' = o_first oi /\ o_last oi' = o_last oi).
      { destruct (N.eq_dec i a) as [->|Hia].
        - destruct Ha' as (ao' & Hga & _ & _ & _ & G4 & G5). assert (oi = ao) by congruence.
          assert (oi' = ao') by congruence. subst. auto.
        - destruct (Hc' _ _ Hia Hne Hgi) as (oc' & Hg' & _ & G2 & G3 & _). assert (oc' = oi') by congruence. subst. auto. }
      destruct Hfl as [-> ->]. split; auto. split; auto. split; auto.
      eapply chain_frame; [|exact Hch]. intros c oc Hin Hgc.
      apply ins_frame; auto.
      * intros ->. eapply Hanin; eauto.
      * rewrite <- Hl. intros Hin2. apply Hne. eapply (R_parent_unique t g HR); eauto.
  - (* child -> parent *)
    intros i oi' Hg Hlv.
    destruct (N.eq_dec i a) as [->|Hia].
    + destruct Ha' as (ao' & Hga & G1 & _). assert (oi' = ao') by congruence. subst oi'. rewrite G1.
      assert (Hoi : o <> InvalidIndex) by (eapply Hvalid; eauto).
      apply N.eqb_neq in Hoi. rewrite Hoi. rewrite kids_set_kids, N.eqb_refl by auto.
      apply in_or_app. right. left. reflexivity.
    + destruct (link_only_inv _ _ _ _ HL Hg) as (oi & Hgi & _ & Eop & _).
      assert (Hlv0 : o_opcode oi <> opFreed) by congruence.
      destruct (ins_other _ _ Hia Hgi) as (oc' & Hg' & F1 & F2 & F3 & F4).
      assert (oc' = oi') by congruence. subst oc'. rewrite F2.
      pose proof (R_up _ _ HR _ _ Hgi Hlv0) as Hup.
      destruct (N.eqb_spec (o_parent oi) InvalidIndex) as [Ep|Ep].
      * destruct Hup as [Hpv Hnx].
        assert (Hnin : ~ In i (l1 ++ l2)).
        { rewrite <- Hl. eapply R_root_not_child; eauto. }
        destruct (ends_neq l1 l2 i) as [H1 H2]; [eapply Hvalid; eauto | exact Hnin |].
        rewrite H1 in F3. rewrite H2 in F4. split; congruence.
      * rewrite kids_set_kids by auto. destruct (N.eqb_spec (o_parent oi) o) as [Epo|Epo]; auto.
        rewrite Epo, Hl in Hup. apply in_app_or in Hup. apply in_or_app. destruct Hup; auto. right; right; auto.
  - (* acyclic *)
    intros i oi' Hg Hlv.
    destruct (link_only_inv _ _ _ _ HL Hg) as (oi & Hgi & _ & Eop & _).
    assert (Hlv0 : o_opcode oi <> opFreed) by congruence.
    destruct (R_acyc _ _ HR _ _ Hgi Hlv0) as (k & Hk).
    eapply (Depth_after_attach t g HR o a oo); eauto.
    + intros j oj Hja Hgj. destruct (ins_other _ _ Hja Hgj) as (oj' & Hgj' & F1 & F2 & _). eauto.
    + destruct Ha' as (ao' & Hga & G1 & _).
      pose proof HL as (_ & _ & HLg). destruct (HLg _ _ Ha) as (ao2 & Hga2 & _ & Eop2 & _).
      exists ao'. repeat split; auto. congruence.
Qed.
End Insert.

Lemma R_child {V} (t : ObjectTree V) g p c : R t g -> In c (kids g p) ->
  exists co, get t c = Some co /\ o_opcode co <> opFreed /\ o_parent co = p /\ o_index co = c /\
             c <> p /\ c <> InvalidIndex.
Proof.
  intros HR Hin. destruct (R_In_kids t g HR _ _ Hin) as (_ & co & Hc & Hl & Hp).
  exists co. repeat split; auto.
  - eapply R_index; eauto.
  - eapply R_child_neq_parent; eauto.
  - eapply R_pos_not_Inv; eauto.
Qed.

Ltac lo :=
  repeat (eapply link_only_trans; [| eapply link_only_tset; [getok | fld; assumption | auto with ls]]);
  apply link_only_refl.

Ltac inv_false c Hv :=
  let H := fresh in assert (H : InvalidIndex <> c) by (apply not_eq_sym; eapply Hv; eauto);
  apply N.eqb_neq in H; rewrite H.

Lemma attach_facts {V} (t : ObjectTree V) g o a :
  R t g -> glive g o -> glive g a -> groot g a -> ~ desc g a o ->
  exists oo ao, get t o = Some oo /\ o_opcode oo <> opFreed /\ get t a = Some ao /\ o_opcode ao <> opFreed /\
    o <> a /\ o_parent ao = InvalidIndex /\ o_prev ao = InvalidIndex /\ o_next ao = InvalidIndex /\
    o_index oo = o /\ o_index ao = a.
Proof.
  intros HR Hlo Hla Hroot Hnd. apply (R_live_glive t g HR) in Hlo, Hla.
  destruct Hlo as (oo & Ho & Hol). destruct Hla as (ao & Ha & Hal).
  pose proof (proj1 (R_groot t g HR a ao Ha Hal) Hroot) as Hap.
  pose proof (R_up _ _ HR _ _ Ha Hal) as Haup. rewrite Hap, N.eqb_refl in Haup. destruct Haup as [Hapv Hanx].
  exists oo, ao. repeat split; auto; try (eapply R_index; eauto). intros ->. apply Hnd. constructor.
Qed.

Lemma append_R {V} (t : ObjectTree V) g o a :
  R t g -> legal g (OpAppend o a) ->
  exists t', append t o a = Ok t' /\ R t' (astep g (OpAppend o a)).
Proof.
  intros HR (Hlo & Hla & Hroot & Hnd).
  destruct (attach_facts t g o a HR Hlo Hla Hroot Hnd) as (oo & ao & Ho & Hol & Ha & Hal & Hoa & Hap & Hapv & Hanx & Hio & Hia).
  destruct (R_kids _ _ HR _ _ Ho Hol) as (Hfirst & Hlast & Hchain & Hnodup).
  assert (Hvalid : forall c oc, get t c = Some oc -> c <> InvalidIndex) by (intros; eapply R_pos_not_Inv; eauto).
  cbn [astep].
  destruct (list_last_case (kids g o)) as [El | (l' & z & El)].
  - (* first child *)
    rewrite El in *. cbn [hd last] in *.
    unfold append. xrd. xwr. xrd. xrd. rewrite Hlast, N.eqb_refl. xwr. erewrite wr_ok by getok.
    rewrite Hio, Hia.
    eexists; split; [reflexivity|].
    change ([] ++ [a]) with ([] ++ a :: @nil N).
    eapply insert_R with (oo := oo) (ao := ao) (l1 := []) (l2 := []); eauto.
    + lo.
    + eexists. split; [getok|]. fld. cbn [hd last]. auto.
    + eexists. split; [getok|]. fld. cbn [hd last]. auto.
    + intros c oc Hca Hco Hg. exists oc. split; [getok|]. cbn [hd last].
      inv_false c Hvalid. auto.
  - (* after the last child z *)
    rewrite El in *. rewrite last_last in Hlast.
    assert (Hzin : In z (kids g o)) by (rewrite El; apply in_or_app; right; left; reflexivity).
    destruct (R_child t g o z HR Hzin) as (zo & Hz & Hzl & Hzp & Hiz & Hzo & Hzv).
    assert (Hza : z <> a).
    { intros E. rewrite E in Hzin. exact (R_root_not_child t g HR a ao o Ha Hap Hzin). }
    unfold append. xrd. xwr. xrd. xrd. rewrite Hlast.
    rewrite (proj2 (N.eqb_neq _ _) Hzv).
    erewrite ObjectAt_deref_live; [| rewrite !tset_len; apply (R_bound _ _ HR) | getok | fld; auto ].
    cbn [bind]. xwr. xrd. xwr. xwr. erewrite wr_ok by getok.
    rewrite Hio, Hia, Hiz.
    eexists; split; [reflexivity|].
    change (l' ++ [z]) with (l' ++ z :: nil) at 1.
    replace ((l' ++ [z]) ++ [a]) with ((l' ++ [z]) ++ a :: nil) by reflexivity.
    eapply insert_R with (oo := oo) (ao := ao) (l1 := l' ++ [z]) (l2 := []); eauto.
    + rewrite El, app_nil_r. reflexivity.
    + lo.
    + eexists. split; [getok|]. fld. cbn [hd]. rewrite last_last. auto.
    + eexists. split; [getok|]. fld. cbn [last]. rewrite Hfirst. split; auto. split; auto. split; auto.
      split; auto. destruct l'; reflexivity.
    + intros c oc Hca Hco Hg. rewrite last_last. cbn [hd]. inv_false c Hvalid.
      destruct (N.eqb_spec z c) as [<-|Hzc].
      * eexists. split; [getok|]. fld. auto.
      * exists oc. split; [getok|]. auto.
Qed.

Lemma insert_after_split n a l1 l2 : ~ In n l1 -> insert_after n a (l1 ++ n :: l2) = l1 ++ n :: a :: l2.
Proof.
  induction l1 as [|x l1 IH]; intros Hn; cbn [app insert_after].
  - rewrite N.eqb_refl. reflexivity.
  - destruct (N.eqb_spec x n) as [->|Hne]; [exfalso; apply Hn; left; reflexivity|].
    rewrite IH; auto. intros H; apply Hn; right; auto.
Qed.

Lemma chain_mid {V} (t : ObjectTree V) p l1 c l2 :
  chain t p InvalidIndex (l1 ++ c :: l2) InvalidIndex -> node t c p (last l1 InvalidIndex) (hd InvalidIndex l2).
Proof. intros H. apply chain_app in H. destruct H as [_ H]. destruct H as [H _]. exact H. Qed.

Lemma appendAfter_R {V} (t : ObjectTree V) g o a n :
  R t g -> legal g (OpAppendAfter o a n) ->
  exists t', appendAfter t o a n = Ok t' /\ R t' (astep g (OpAppendAfter o a n)).
Proof.
  intros HR (Hlo & Hla & Hroot & Hnd & Hnin).
  destruct (attach_facts t g o a HR Hlo Hla Hroot Hnd) as (oo & ao & Ho & Hol & Ha & Hal & Hoa & Hap & Hapv & Hanx & Hio & Hia).
  destruct (R_kids _ _ HR _ _ Ho Hol) as (Hfirst & Hlast & Hchain & Hnodup).
  assert (Hvalid : forall c oc, get t c = Some oc -> c <> InvalidIndex) by (intros; eapply R_pos_not_Inv; eauto).
  destruct (in_split _ _ Hnin) as (l1 & l2 & El).
  assert (Hn1 : ~ In n l1).
  { rewrite El in Hnodup. apply NoDup_remove_2 in Hnodup. intros H. apply Hnodup. apply in_or_app; auto. }
  destruct (R_child t g o n HR Hnin) as (no & Hn & Hnl & Hnp & Hin & Hno & _).
  assert (Hna : n <> a).
  { intros E. rewrite E in Hnin. exact (R_root_not_child t g HR a ao o Ha Hap Hnin). }
  rewrite El in Hchain. pose proof (chain_mid _ _ _ _ _ Hchain) as (no' & Hn' & _ & _ & Hnpv & Hnnx).
  assert (no' = no) by congruence. subst no'.
  cbn [astep]. rewrite El, insert_after_split by auto.
  destruct l2 as [|m l2].
  - (* nextTo is the last child: plain append *)
    cbn [hd] in Hnnx. unfold appendAfter. xrd. rewrite Hnnx, N.eqb_refl.
    destruct (append_R t g o a HR) as (t' & Ht' & HR'); [cbn [legal]; auto|].
    exists t'. split; auto. cbn [astep] in HR'. rewrite El in HR'.
    rewrite <- app_assoc in HR'. exact HR'.
  - cbn [hd] in Hnnx.
    assert (Hmin : In m (kids g o)) by (rewrite El; apply in_or_app; right; right; left; reflexivity).
    destruct (R_child t g o m HR Hmin) as (mo & Hm & Hml & Hmp & _ & Hmo & Hmv).
    assert (Hma : m <> a).
    { intros E. rewrite E in Hmin. exact (R_root_not_child t g HR a ao o Ha Hap Hmin). }
    assert (Hmn : m <> n).
    { intros E. rewrite El in Hnodup. apply NoDup_remove_2 in Hnodup. apply Hnodup.
      apply in_or_app. right. left. auto. }
    unfold appendAfter. xrd. rewrite Hnnx.
    rewrite (proj2 (N.eqb_neq _ _) Hmv).
    xrd. xwr. xrd. xwr. xrd. xwr. xrd. xrd.
    rewrite Hnnx.
    erewrite ObjectAt_deref_live; [| rewrite !tset_len; apply (R_bound _ _ HR) | getok | fld; auto ].
    cbn [bind]. xwr. xrd. erewrite wr_ok by getok.
    rewrite Hio, Hia, Hin.
    eexists; split; [reflexivity|].
    replace (l1 ++ n :: a :: m :: l2) with ((l1 ++ [n]) ++ a :: (m :: l2)) by (rewrite <- app_assoc; reflexivity).
    eapply insert_R with (oo := oo) (ao := ao) (l1 := l1 ++ [n]) (l2 := m :: l2); eauto.
    + rewrite El, <- app_assoc. reflexivity.
    + lo.
    + eexists. split; [getok|]. fld. cbn [hd]. rewrite last_last. auto.
    + eexists. split; [getok|]. split; auto. split; auto. split; auto.
      rewrite Hfirst, Hlast, El. split.
      * destruct l1; reflexivity.
      * rewrite last_app_cons. change (last (m :: l2) n = last (m :: l2) a). apply last_cons_irrel.
    + intros c oc Hca Hco Hg. rewrite last_last. cbn [hd].
      destruct (N.eq_dec c m) as [->|Hcm]; [|destruct (N.eq_dec c n) as [->|Hcn]].
      * rewrite N.eqb_refl. assert (H1 : (n =? m) = false) by (apply N.eqb_neq; auto). rewrite H1.
        eexists. split; [getok|]. fld. auto.
      * rewrite N.eqb_refl. assert (H1 : (m =? n) = false) by (apply N.eqb_neq; auto). rewrite H1.
        eexists. split; [getok|]. fld. auto.
      * assert (H1 : m <> c) by auto. assert (H2 : n <> c) by auto.
        apply N.eqb_neq in H1, H2. rewrite H1, H2.
        exists oc. split; [getok|]. auto.
Qed.

(** ---- removing a child from its list ---- *)
Section Remove.
Context {V : Type} (t T : ObjectTree V) (g : ghost) (HR : R t g).
Variables (o a : N) (oo ao : Object V) (l1 l2 : list N).
Hypotheses (Ho : get t o = Some oo) (Hol : o_opcode oo <> opFreed)
           (Ha : get t a = Some ao) (Hal : o_opcode ao <> opFreed)
           (Hl : kids g o = l1 ++ a :: l2)
           (HL : link_only t T).
Hypothesis Ha' : exists ao', get T a = Some ao' /\ o_parent ao' = InvalidIndex /\ o_prev ao' = InvalidIndex /\
                   o_next ao' = InvalidIndex /\ o_first ao' = o_first ao /\ o_last ao' = o_last ao.
Hypothesis Ho' : exists oo', get T o = Some oo' /\ o_parent oo' = o_parent oo /\ o_prev oo' = o_prev oo /\
                   o_next oo' = o_next oo /\ o_first oo' = hd InvalidIndex (l1 ++ l2) /\
                   o_last oo' = last (l1 ++ l2) InvalidIndex.
Hypothesis Hc' : forall c oc, c <> a -> c <> o -> get t c = Some oc ->
   exists oc', get T c = Some oc' /\ o_parent oc' = o_parent oc /\ o_first oc' = o_first oc /\ o_last oc' = o_last oc /\
     o_prev oc' = (if hd InvalidIndex l2 =? c then last l1 InvalidIndex else o_prev oc) /\
     o_next oc' = (if last l1 InvalidIndex =? c then hd InvalidIndex l2 else o_next oc).

Let Hain : In a (kids g o).
Proof. rewrite Hl. apply in_or_app. right. left. reflexivity. Qed.

Let Hoa : o <> a.
Proof. apply not_eq_sym. eapply (R_child_neq_parent t g HR); eauto. Qed.

Let Holt : o < N.of_nat (length (g_kids g)).
Proof. rewrite (R_len _ _ HR). eapply get_lt; eauto. Qed.

Let Hnodup : NoDup (l1 ++ a :: l2).
Proof. rewrite <- Hl. eapply R_kids; eauto. Qed.

Let Honin : ~ In o (l1 ++ a :: l2).
Proof. rewrite <- Hl. intros Hin. eapply (R_child_neq_parent t g HR); eauto. Qed.

Let Hvalid : forall c oc, get t c = Some oc -> c <> InvalidIndex.
Proof. intros. eapply R_pos_not_Inv; eauto. Qed.

Let Hanin : ~ In a (l1 ++ l2).
Proof. apply NoDup_remove_2. exact Hnodup. Qed.

Let Honin12 : ~ In o (l1 ++ l2).
Proof. intros Hin. apply Honin. apply in_app_or in Hin. apply in_or_app. destruct Hin; auto. right; right; auto. Qed.

Let Ho3 : exists oo', get T o = Some oo' /\ o_parent oo' = o_parent oo /\ o_prev oo' = o_prev oo /\ o_next oo' = o_next oo.
Proof. destruct Ho' as (oo' & H & A & B & C & _). eauto. Qed.

Let rem_other :=
  relink_other t T g HR o a oo l1 l2 (last l1 InvalidIndex) (hd InvalidIndex l2) Ho HL Honin12 Ho3 Hc'.
Let rem_frame :=
  relink_frame t T g HR o a oo l1 l2 (last l1 InvalidIndex) (hd InvalidIndex l2) Ho HL Honin12 Ho3 Hc'.

Lemma remove_R : R T (set_kids g o (l1 ++ l2)).
Proof.
  destruct (R_kids _ _ HR _ _ Ho Hol) as (Hfirst & Hlast & Hchain & _).
  rewrite Hl in Hfirst, Hlast, Hchain.
  assert (Hnd12 : NoDup (l1 ++ l2)) by (eapply NoDup_remove_1; eauto).
  apply R_surgery with (t := t) (g := g); auto.
  - apply set_kids_len.
  - intros i oi Hg Hf. rewrite kids_set_kids by auto.
    destruct (N.eqb_spec i o) as [->|Hne]; [congruence|]. eapply R_freed; eauto.
  - intros i oi' Hg Hlv. rewrite kids_set_kids by auto.
    destruct (N.eqb_spec i o) as [->|Hne].
    + pose proof Ho' as (oo' & Hgo & E1 & E2 & E3 & E4 & E5). assert (oi' = oo') by congruence. subst oi'.
      split; auto. split; auto. split; auto.
      apply chain_app in Hchain. destruct Hchain as [Hc1 [_ Hc2]]. cbn [hd] in Hc1.
      apply chain_app. split.
      * eapply (relink_left t T g HR o a oo l1 l2 (last l1 InvalidIndex)); eauto.
        intros Hin. apply Hanin. apply in_or_app; auto.
      * eapply (relink_right t T g HR o a oo l1 l2 (last l1 InvalidIndex) (hd InvalidIndex l2)); eauto.
        intros Hin. apply Hanin. apply in_or_app; auto.
    + destruct (link_only_inv _ _ _ _ HL Hg) as (oi & Hgi & _ & Eop & _).
      assert (Hlv0 : o_opcode oi <> opFreed) by congruence.
      destruct (R_kids _ _ HR _ _ Hgi Hlv0) as (Hf & Hla & Hch & Hnd').
      assert (Hfl : o_first oi' = o_first oi /\ o_last oi' = o_last oi).
      { destruct (N.eq_dec i a) as [->|Hia].
        - destruct Ha' as (ao' & Hga & _ & _ & _ & G4 & G5). assert (oi = ao) by congruence.
          assert (oi' = ao') by congruence. subst. auto.
        - destruct (Hc' _ _ Hia Hne Hgi) as (oc' & Hg' & _ & G2 & G3 & _). assert (oc' = oi') by congruence. subst. auto. }
      destruct Hfl as [-> ->]. split; auto. split; auto. split; auto.
      eapply chain_frame; [|exact Hch]. intros c oc Hin Hgc.
      assert (Hcko : ~ In c (kids g o)).
      { intros Hin2. apply Hne. eapply (R_parent_unique t g HR); eauto. }
      apply rem_frame; auto.
      * intros ->. apply Hcko. exact Hain.
      * intros Hin2. apply Hcko. rewrite Hl. apply in_app_or in Hin2. apply in_or_app.
        destruct Hin2; auto. right; right; auto.
  - intros i oi' Hg Hlv.
    destruct (N.eq_dec i a) as [->|Hia].
    + destruct Ha' as (ao' & Hga & G1 & G2 & G3 & _). assert (oi' = ao') by congruence. subst oi'.
      rewrite G1, N.eqb_refl. auto.
    + destruct (link_only_inv _ _ _ _ HL Hg) as (oi & Hgi & _ & Eop & _).
      assert (Hlv0 : o_opcode oi <> opFreed) by congruence.
      destruct (rem_other _ _ Hia Hgi) as (oc' & Hg' & F1 & F2 & F3 & F4).
      assert (oc' = oi') by congruence. subst oc'. rewrite F2.
      pose proof (R_up _ _ HR _ _ Hgi Hlv0) as Hup.
      destruct (N.eqb_spec (o_parent oi) InvalidIndex) as [Ep|Ep].
      * destruct Hup as [Hpv Hnx].
        assert (Hnin : ~ In i (l1 ++ a :: l2)).
        { rewrite <- Hl. eapply R_root_not_child; eauto. }
        destruct (ends_neq l1 l2 i) as [H1 H2]; [eapply Hvalid; eauto | |].
        { intros Hin. apply Hnin. apply in_app_or in Hin. apply in_or_app. destruct Hin; auto. right; right; auto. }
        rewrite H1 in F3. rewrite H2 in F4. split; congruence.
      * rewrite kids_set_kids by auto. destruct (N.eqb_spec (o_parent oi) o) as [Epo|Epo]; auto.
        rewrite Epo, Hl in Hup. apply in_app_or in Hup. apply in_or_app.
        destruct Hup as [|[E|]]; auto. congruence.
  - intros i oi' Hg Hlv.
    destruct (link_only_inv _ _ _ _ HL Hg) as (oi & Hgi & _ & Eop & _).
    assert (Hlv0 : o_opcode oi <> opFreed) by congruence.
    destruct (R_acyc _ _ HR _ _ Hgi Hlv0) as (k & Hk).
    eapply (Depth_reparent t T a 0); eauto.
    + intros j oj Hja Hgj. destruct (rem_other _ _ Hja Hgj) as (oj' & Hgj' & F1 & F2 & _). eauto.
    + destruct Ha' as (ao' & Hga & G1 & _).
      pose proof HL as (_ & _ & HLg). destruct (HLg _ _ Ha) as (ao2 & Hga2 & _ & Eop2 & _).
      eapply Depth_root with (o := ao'); auto. congruence.
Qed.
End Remove.

Lemma remove1_split a l1 l2 : ~ In a l1 -> remove1 a (l1 ++ a :: l2) = l1 ++ l2.
Proof.
  induction l1 as [|x l1 IH]; intros Hn; cbn [app remove1].
  - rewrite N.eqb_refl. reflexivity.
  - destruct (N.eqb_spec x a) as [->|Hne]; [exfalso; apply Hn; left; reflexivity|].
    rewrite IH; auto. intros H; apply Hn; right; auto.
Qed.

Ltac xobj HR :=
  erewrite ObjectAt_deref_live; [| rewrite ?tset_len; apply (R_bound _ _ HR) | getok | fld; auto ]; cbn [bind].

Lemma detach_R {V} (t : ObjectTree V) g o a :
  R t g -> legal g (OpDetach o a) ->
  exists t', detach t o a = Ok t' /\ R t' (astep g (OpDetach o a)).
Proof.
  intros HR Hain. cbn [legal] in Hain.
  destruct (R_In_kids t g HR _ _ Hain) as ((oo & Ho & Hol) & ao & Ha & Hal & Hap).
  assert (Hao : a <> o) by (exact (R_child_neq_parent t g HR o a Hain)).
  pose proof (R_index _ _ HR _ _ Ho) as Hio. pose proof (R_index _ _ HR _ _ Ha) as Hia.
  destruct (R_kids _ _ HR _ _ Ho Hol) as (Hfirst & Hlast & Hchain & Hnodup).
  assert (Hvalid : forall c oc, get t c = Some oc -> c <> InvalidIndex) by (intros; eapply R_pos_not_Inv; eauto).
  destruct (in_split _ _ Hain) as (l1 & l2 & El).
  assert (Ha1 : ~ In a l1).
  { rewrite El in Hnodup. apply NoDup_remove_2 in Hnodup. intros H. apply Hnodup. apply in_or_app; auto. }
  assert (Ha2 : ~ In a l2).
  { rewrite El in Hnodup. apply NoDup_remove_2 in Hnodup. intros H. apply Hnodup. apply in_or_app; auto. }
  rewrite El in Hchain, Hfirst, Hlast. pose proof (chain_mid _ _ _ _ _ Hchain) as (ao' & Ha' & _ & _ & Hapv & Hanx).
  assert (ao' = ao) by congruence. subst ao'. clear Ha'.
  rewrite hd_app_cons in Hfirst. rewrite last_app_cons in Hlast.
  cbn [astep]. rewrite El, remove1_split by auto.
  assert (Hav : a <> InvalidIndex) by eauto.
  destruct (list_last_case l1) as [E1 | (l1' & z & E1)]; destruct l2 as [|m l2']; subst l1;
    cbn [hd] in *; rewrite ?last_last in *;
    change (last [] a) with a in *; change (last (@nil N) InvalidIndex) with InvalidIndex in *.
  - (* only child *)
    unfold detach. xrd. xrd. rewrite Hfirst, Hia, N.eqb_refl. xrd. xwr. xrd. xrd. rewrite Hlast, Hia, N.eqb_refl.
    xrd. xwr. xrd. rewrite Hanx, N.eqb_refl. cbn [negb bind]. xrd. rewrite Hapv, N.eqb_refl. cbn [negb bind].
    xwr. xwr. erewrite wr_ok by getok.
    eexists; split; [reflexivity|].
    eapply remove_R with (oo := oo) (ao := ao) (l1 := []) (l2 := []); eauto.
    + lo.
    + eexists. split; [getok|]. fld. auto.
    + eexists. split; [getok|]. fld. cbn [hd last app]. rewrite ?Hanx, ?Hapv. auto 10.
    + intros c oc Hca Hco Hg. exists oc. split; [getok|]. cbn [hd last]. inv_false c Hvalid. auto.
  - (* first child, m follows *)
    assert (Hmin : In m (kids g o)) by (rewrite El; right; left; reflexivity).
    destruct (R_child t g o m HR Hmin) as (mo & Hm & Hml & Hmp & _ & Hmo & Hmv).
    assert (Hma : m <> a) by (intros E; apply Ha2; left; auto).
    assert (Hlm : last (m :: l2') a <> a).
    { rewrite (last_cons_irrel l2' m a InvalidIndex). apply last_neq; auto. }
    unfold detach. xrd. xrd. rewrite Hfirst, Hia, N.eqb_refl. xrd. xwr. xrd. xrd. rewrite Hlast, Hia.
    apply N.eqb_neq in Hlm. rewrite Hlm. cbn [bind].
    xrd. rewrite Hanx. rewrite (proj2 (N.eqb_neq _ _) Hmv). cbn [negb].
    xobj HR. xrd. xwr. xrd. rewrite Hapv, N.eqb_refl. cbn [negb bind].
    xwr. xwr. erewrite wr_ok by getok.
    eexists; split; [reflexivity|].
    eapply remove_R with (oo := oo) (ao := ao) (l1 := []) (l2 := m :: l2'); eauto.
    + lo.
    + eexists. split; [getok|]. fld. auto.
    + eexists. split; [getok|]. fld. cbn [hd last app]. rewrite ?Hanx, ?Hlast.
      split; auto. split; auto. split; auto. split; auto. apply last_cons_irrel.
    + intros c oc Hca Hco Hg. cbn [hd last]. inv_false c Hvalid.
      destruct (N.eq_dec c m) as [->|Hcm].
      * rewrite N.eqb_refl. eexists. split; [getok|]. fld. rewrite ?Hapv. auto.
      * assert (H1 : (m =? c) = false) by (apply N.eqb_neq; auto). rewrite H1.
        exists oc. split; [getok|]. auto.
  - (* last child, z precedes *)
    assert (Hzin : In z (kids g o)) by (rewrite El; apply in_or_app; left; apply in_or_app; right; left; reflexivity).
    destruct (R_child t g o z HR Hzin) as (zo & Hz & Hzl & Hzp & _ & Hzo & Hzv).
    assert (Hza : z <> a) by (intros E; apply Ha1; apply in_or_app; right; left; auto).
    assert (Hhz : hd a (l1' ++ [z]) <> a).
    { destruct l1' as [|y l1'']; cbn [app hd]; auto. intros E. apply Ha1. left. auto. }
    unfold detach. xrd. xrd. rewrite Hfirst, Hia.
    apply N.eqb_neq in Hhz. rewrite Hhz. cbn [bind].
    xrd. xrd. rewrite Hlast, Hia, N.eqb_refl. xrd. xwr.
    xrd. rewrite Hanx, N.eqb_refl. cbn [negb bind].
    xrd. rewrite Hapv. rewrite (proj2 (N.eqb_neq _ _) Hzv). cbn [negb].
    xobj HR. xrd. xwr. xwr. xwr. erewrite wr_ok by getok.
    eexists; split; [reflexivity|].
    eapply remove_R with (oo := oo) (ao := ao) (l1 := l1' ++ [z]) (l2 := []); eauto.
    + lo.
    + eexists. split; [getok|]. fld. auto.
    + eexists. split; [getok|]. fld. cbn [hd]. rewrite ?app_nil_r, ?last_last, ?Hapv, ?Hfirst.
      split; auto. split; auto. split; auto. split; auto. destruct l1'; reflexivity.
    + intros c oc Hca Hco Hg. rewrite last_last. cbn [hd]. inv_false c Hvalid.
      destruct (N.eq_dec c z) as [->|Hcz].
      * rewrite N.eqb_refl. eexists. split; [getok|]. fld. rewrite ?Hanx. auto.
      * assert (H1 : (z =? c) = false) by (apply N.eqb_neq; auto). rewrite H1.
        exists oc. split; [getok|]. auto.
  - (* in the middle *)
    assert (Hmin : In m (kids g o)) by (rewrite El; apply in_or_app; right; right; left; reflexivity).
    destruct (R_child t g o m HR Hmin) as (mo & Hm & Hml & Hmp & _ & Hmo & Hmv).
    assert (Hma : m <> a) by (intros E; apply Ha2; left; auto).
    assert (Hzin : In z (kids g o)) by (rewrite El; apply in_or_app; left; apply in_or_app; right; left; reflexivity).
    destruct (R_child t g o z HR Hzin) as (zo & Hz & Hzl & Hzp & _ & Hzo & Hzv).
    assert (Hza : z <> a) by (intros E; apply Ha1; apply in_or_app; right; left; auto).
    assert (Hzm : z <> m).
    { intros E. rewrite El in Hnodup. eapply (NoDup_app_disjoint (l1' ++ [z]) (a :: m :: l2')); eauto.
      - apply in_or_app. right. left. reflexivity.
      - right. left. auto. }
    assert (Hhz : hd a (l1' ++ [z]) <> a).
    { destruct l1' as [|y l1'']; cbn [app hd]; auto. intros E. apply Ha1. left. auto. }
    assert (Hlm : last (m :: l2') a <> a).
    { rewrite (last_cons_irrel l2' m a InvalidIndex). apply last_neq; auto. }
    unfold detach. xrd. xrd. rewrite Hfirst, Hia.
    apply N.eqb_neq in Hhz. rewrite Hhz. cbn [bind].
    xrd. xrd. rewrite Hlast, Hia. apply N.eqb_neq in Hlm. rewrite Hlm. cbn [bind].
    xrd. rewrite Hanx. rewrite (proj2 (N.eqb_neq _ _) Hmv). cbn [negb].
    xobj HR. xrd. xwr.
    xrd. rewrite Hapv. rewrite (proj2 (N.eqb_neq _ _) Hzv). cbn [negb].
    xobj HR. xrd. xwr. xwr. xwr. erewrite wr_ok by getok.
    eexists; split; [reflexivity|].
    eapply remove_R with (oo := oo) (ao := ao) (l1 := l1' ++ [z]) (l2 := m :: l2'); eauto.
    + lo.
    + eexists. split; [getok|]. fld. auto.
    + eexists. split; [getok|]. split; auto. split; auto. split; auto. rewrite Hfirst, Hlast. split.
      * destruct l1'; reflexivity.
      * rewrite last_app_cons, last_cons_default. reflexivity.
    + intros c oc Hca Hco Hg. rewrite last_last. cbn [hd].
      destruct (N.eq_dec c m) as [->|Hcm]; [|destruct (N.eq_dec c z) as [->|Hcz]].
      * rewrite N.eqb_refl. assert (H1 : (z =? m) = false) by (apply N.eqb_neq; auto). rewrite H1.
        eexists. split; [getok|]. fld. rewrite ?Hapv. auto.
      * rewrite N.eqb_refl. assert (H1 : (m =? z) = false) by (apply N.eqb_neq; auto). rewrite H1.
        eexists. split; [getok|]. fld. rewrite ?Hanx. auto.
      * assert (H1 : (m =? c) = false) by (apply N.eqb_neq; auto).
        assert (H2 : (z =? c) = false) by (apply N.eqb_neq; auto). rewrite H1, H2.
        exists oc. split; [getok|]. auto.
Qed.

(** ---- one object changes its status (freed <-> live, detached and childless), the others stay ---- *)
Lemma R_change_one {V} (t T : ObjectTree V) g g' x :
  R t g ->
  length (g_kids g') = length (t_pool T) -> N.of_nat (length (t_pool T)) <= InvalidIndex ->
  (forall i, i <> x -> get T i = get t i) ->
  (forall i, kids g' i = kids g i) ->
  kids g x = [] -> (forall p, ~ In x (kids g p)) ->
  (forall xo', get T x = Some xo' -> o_index xo' = x /\
       (o_opcode xo' <> opFreed -> o_parent xo' = InvalidIndex /\ o_prev xo' = InvalidIndex /\
            o_next xo' = InvalidIndex /\ o_first xo' = InvalidIndex /\ o_last xo' = InvalidIndex) /\
       (o_opcode xo' = opFreed -> In x (g_free g'))) ->
  fchain T (t_free T) (g_free g') -> NoDup (g_free g') ->
  (forall i, i <> x -> In i (g_free g) -> In i (g_free g')) ->
  R T g'.
Proof.
  intros HR Hlen Hbound Hsame Hkids Hkx Hxr Hx Hfc Hnd Hfin.
  assert (Hframe : forall c oc, c <> x -> get t c = Some oc -> exists oc', get T c = Some oc' /\ same_links oc oc').
  { intros c oc Hc Hg. exists oc. rewrite Hsame by auto. split; auto. repeat split; auto. }
  constructor.
  - exact Hlen.
  - exact Hbound.
  - intros i o Hg. destruct (N.eq_dec i x) as [->|Hne]; [apply (Hx _ Hg)|].
    rewrite Hsame in Hg by auto. eapply R_index; eauto.
  - intros i o Hg Hl. rewrite Hkids. destruct (N.eq_dec i x) as [->|Hne].
    + destruct (Hx _ Hg) as (_ & H1 & _). destruct (H1 Hl) as (_ & _ & _ & F & L).
      rewrite Hkx. cbn [hd last chain]. repeat split; auto. constructor.
    + rewrite Hsame in Hg by auto. destruct (R_kids _ _ HR _ _ Hg Hl) as (F & L & C & N0).
      repeat split; auto. eapply chain_frame; [|exact C]. intros c oc Hin Hgc.
      apply Hframe; auto. intros ->. eapply Hxr; eauto.
  - intros i o Hg Hl. destruct (N.eq_dec i x) as [->|Hne].
    + destruct (Hx _ Hg) as (_ & H1 & _). destruct (H1 Hl) as (P & PV & NX & _). rewrite P, N.eqb_refl. auto.
    + rewrite Hsame in Hg by auto. pose proof (R_up _ _ HR _ _ Hg Hl) as Hup.
      destruct (o_parent o =? InvalidIndex); auto. rewrite Hkids. auto.
  - intros i o Hg Hf. rewrite Hkids. destruct (N.eq_dec i x) as [->|Hne].
    + split; auto. destruct (Hx _ Hg) as (_ & _ & H2). auto.
    + rewrite Hsame in Hg by auto. destruct (R_freed _ _ HR _ _ Hg Hf). split; auto.
  - split; auto.
  - intros i o Hg Hl. destruct (N.eq_dec i x) as [->|Hne].
    + destruct (Hx _ Hg) as (_ & H1 & _). destruct (H1 Hl) as (P & _). exists 0%nat. eapply Depth_root; eauto.
    + rewrite Hsame in Hg by auto. destruct (R_acyc _ _ HR _ _ Hg Hl) as (k & Hd). exists k.
      eapply Depth_transfer with (P := fun j => j <> x); [|exact Hd|exact Hne].
      intros j oj Hj Hgj Hlj. split.
      * exists oj. rewrite Hsame by auto. auto.
      * intros Hp E. destruct (R_parent_live t g HR _ _ Hgj Hlj Hp) as [Hin _].
        rewrite E, Hkx in Hin. contradiction.
Qed.

(** ---- parent_of agrees with the parent link ---- *)
Lemma find_none_all {A} (f : A -> bool) l : (forall x, In x l -> f x = false) -> find f l = None.
Proof.
  induction l as [|y l IH]; intros H; [reflexivity|]. cbn [find]. rewrite (H y) by (left; auto).
  apply IH. intros x Hx. apply H. right; auto.
Qed.

Lemma find_unique {A} (f : A -> bool) l x0 :
  In x0 l -> f x0 = true -> (forall x, In x l -> f x = true -> x = x0) -> find f l = Some x0.
Proof.
  induction l as [|y l IH]; intros Hin Hf Hu; [contradiction|]. cbn [find].
  destruct (f y) eqn:E.
  - f_equal. apply Hu; auto. left; auto.
  - destruct Hin as [->|Hin]; [congruence|]. apply IH; auto. intros x Hx. apply Hu. right; auto.
Qed.

Lemma existsb_eqb_In c l : existsb (N.eqb c) l = true <-> In c l.
Proof.
  rewrite existsb_exists. split.
  - intros (x & Hin & E). apply N.eqb_eq in E. subst. auto.
  - intros H. exists c. split; auto. apply N.eqb_refl.
Qed.

Lemma In_slots g p : In p (slots g) <-> p < N.of_nat (length (g_kids g)).
Proof.
  unfold slots. rewrite in_map_iff. split.
  - intros (n & <- & Hin). apply in_seq in Hin. lia.
  - intros H. exists (N.to_nat p). split; [apply N2Nat.id|]. apply in_seq. lia.
Qed.

Lemma parent_of_spec {V} (t : ObjectTree V) g c co :
  R t g -> get t c = Some co -> o_opcode co <> opFreed ->
  parent_of g c = if o_parent co =? InvalidIndex then None else Some (o_parent co).
Proof.
  intros HR Hg Hl. unfold parent_of. pose proof (R_up _ _ HR _ _ Hg Hl) as Hup.
  destruct (N.eqb_spec (o_parent co) InvalidIndex) as [Ep|Ep].
  - apply find_none_all. intros p _. destruct (existsb (N.eqb c) (kids g p)) eqn:E; auto.
    apply existsb_eqb_In in E. exfalso. eapply (R_root_not_child t g HR); eauto.
  - apply find_unique.
    + apply In_slots. eapply In_kids_lt; eauto.
    + apply existsb_eqb_In. exact Hup.
    + intros p _ E. apply existsb_eqb_In in E. eapply (R_parent_unique t g HR); eauto.
Qed.

(** ---- free ---- *)
Lemma free_root_R {V} (t : ObjectTree V) g x xo :
  R t g -> get t x = Some xo -> o_opcode xo <> opFreed -> o_parent xo = InvalidIndex -> kids g x = [] ->
  exists t', free t x = Ok t' /\ R t' (mkGhost (g_kids g) (x :: g_free g)).
Proof.
  intros HR Hx Hxl Hxp Hkx.
  destruct (R_kids _ _ HR _ _ Hx Hxl) as (Hf & Hla & _ & _). rewrite Hkx in Hf, Hla. cbn [hd last] in Hf, Hla.
  pose proof (R_index _ _ HR _ _ Hx) as Hix.
  unfold free. xrd. rewrite Hxp, N.eqb_refl. cbn [negb bind]. xrd. xrd. rewrite Hf, Hla, N.eqb_refl. cbn [negb orb].
  xwr. xwr. xrd. rewrite Hix.
  eexists; split; [reflexivity|].
  match goal with |- R ?T _ => set (T' := T) end.
  assert (HgT : forall i, get T' i = get (tset (tset t x (set_opcode opFreed)) x (set_next (t_free t))) i) by reflexivity.
  assert (Hxnl : ~ In x (g_free g)).
  { intros Hin. destruct (fchain_In _ _ _ _ (proj1 (R_flist _ _ HR)) Hin) as (o' & Hg' & Hf'). congruence. }
  apply R_change_one with (t := t) (g := g) (x := x); auto.
  - unfold T'. cbn [t_pool g_kids]. rewrite !tset_len. apply (R_len _ _ HR).
  - unfold T'. cbn [t_pool]. rewrite !tset_len. apply (R_bound _ _ HR).
  - intros i Hne. rewrite HgT. gsimp. reflexivity.
  - intros p. eapply (R_root_not_child t g HR); eauto.
  - intros xo' Hg'. rewrite HgT in Hg'. gsimp_in Hg'. rewrite Hx in Hg'. cbn [option_map] in Hg'.
    inversion Hg'; subst xo'. fld. split; auto. split; [congruence|]. intros _. left. reflexivity.
  - cbn [g_free fchain]. split; [reflexivity|].
    eexists. split; [rewrite HgT; getok|]. fld. split; auto.
    eapply fchain_frame; [|exact (proj1 (R_flist _ _ HR))].
    intros y Hy. rewrite HgT. assert (y <> x) by (intros ->; contradiction). gsimp. reflexivity.
  - cbn [g_free]. constructor; auto. apply (R_flist _ _ HR).
  - intros i _ Hin. right. exact Hin.
Qed.

Lemma remove1_notin a l : NoDup l -> ~ In a (remove1 a l).
Proof.
  induction l as [|x l IH]; intros Hnd; cbn [remove1]; [tauto|].
  inversion Hnd; subst. destruct (N.eqb_spec x a) as [->|Hne]; auto.
  intros [E|Hin]; [congruence|]. apply IH; auto.
Qed.

Lemma free_R {V} (t : ObjectTree V) g x :
  R t g -> legal g (OpFree x) ->
  exists t', free t x = Ok t' /\ R t' (astep g (OpFree x)).
Proof.
  intros HR (Hlx & Hkx).
  pose proof Hlx as Hgl. apply (R_live_glive t g HR) in Hlx. destruct Hlx as (xo & Hx & Hxl).
  cbn [astep]. rewrite (parent_of_spec t g x xo HR Hx Hxl).
  destruct (N.eqb_spec (o_parent xo) InvalidIndex) as [Ep|Ep].
  - eapply free_root_R; eauto.
  - destruct (R_parent_live t g HR _ _ Hx Hxl Ep) as (Hin & po & Hp & Hpl).
    set (p := o_parent xo) in *.
    destruct (detach_R t g p x HR Hin) as (T1 & Hd & HR1). cbn [astep] in HR1.
    assert (Hplt : p < N.of_nat (length (g_kids g))) by (eapply In_kids_lt; eauto).
    assert (Hxp : x <> p) by (exact (R_child_neq_parent t g HR p x Hin)).
    set (g1 := set_kids g p (remove1 x (kids g p))) in *.
    assert (Hgl1 : glive g1 x).
    { destruct Hgl as [A B]. split; auto. unfold g1. rewrite set_kids_len. auto. }
    apply (R_live_glive T1 g1 HR1) in Hgl1. destruct Hgl1 as (xo1 & Hx1 & Hxl1).
    assert (Hroot1 : groot g1 x).
    { intros q Hq. unfold g1 in Hq. rewrite kids_set_kids in Hq by auto.
      destruct (N.eqb_spec q p) as [E|Hqp].
      - eapply remove1_notin; [|exact Hq]. eapply R_kids; eauto.
      - apply Hqp. eapply (R_parent_unique t g HR); eauto. }
    pose proof (proj1 (R_groot T1 g1 HR1 x xo1 Hx1 Hxl1) Hroot1) as Hxp1.
    assert (Hkx1 : kids g1 x = []).
    { unfold g1. rewrite kids_set_kids by auto. apply N.eqb_neq in Hxp. rewrite Hxp. exact Hkx. }
    destruct (free_root_R T1 g1 x xo1 HR1 Hx1 Hxl1 Hxp1 Hkx1) as (T2 & Hf2 & HR2).
    exists T2. split; [|exact HR2].
    (* the code: detach from the parent, then the rest of free, which is free on the detached object *)
    unfold free in *. rewrite (rd_ok _ _ _ _ Hx) in *. cbn [bind] in *.
    apply N.eqb_neq in Ep. fold p. rewrite Ep. cbn [negb].
    erewrite ObjectAt_deref_live; [| apply (R_bound _ _ HR) | exact Hp | exact Hpl]. cbn [bind].
    rewrite Hd. cbn [bind].
    rewrite (rd_ok _ _ _ _ Hx1) in Hf2. cbn [bind] in Hf2. rewrite Hxp1, N.eqb_refl in Hf2. cbn [negb bind] in Hf2.
    exact Hf2.
Qed.

(** ---- changes that leave opcode, index and links alone (names, values) ---- *)
Definition eq_links {V} (o o' : Object V) : Prop :=
  o_opcode o' = o_opcode o /\ o_index o' = o_index o /\ o_parent o' = o_parent o /\ o_prev o' = o_prev o /\
  o_next o' = o_next o /\ o_first o' = o_first o /\ o_last o' = o_last o.

Lemma fchain_frame2 {V} (t T : ObjectTree V) h l :
  (forall x o, In x l -> get t x = Some o -> exists o', get T x = Some o' /\ eq_links o o') ->
  fchain t h l -> fchain T h l.
Proof.
  revert h; induction l as [|y l IH]; intros h H; cbn [fchain]; auto.
  intros (-> & o & Hg & Hf & Hc). split; auto.
  destruct (H y o (or_introl eq_refl) Hg) as (o' & Hg' & E1 & _ & _ & _ & E5 & _).
  exists o'. split; auto. split; [congruence|]. rewrite E5. apply IH; auto.
  intros x ox Hx. apply H. right; auto.
Qed.

Lemma R_ext {V} (t T : ObjectTree V) g :
  R t g -> length (t_pool T) = length (t_pool t) -> t_free T = t_free t ->
  (forall i o, get t i = Some o -> exists o', get T i = Some o' /\ eq_links o o') ->
  R T g.
Proof.
  intros HR Hlen Hfree H.
  assert (Hinv : forall i o', get T i = Some o' -> exists o, get t i = Some o /\ eq_links o o').
  { intros i o' Hg. pose proof (get_lt _ _ _ Hg) as Hlt. rewrite Hlen in Hlt.
    destruct (get_some _ _ Hlt) as (o & Ho). destruct (H _ _ Ho) as (o2 & Hg2 & E).
    assert (o2 = o') by congruence. subst. eauto. }
  assert (Hframe : forall c oc, get t c = Some oc -> exists oc', get T c = Some oc' /\ same_links oc oc').
  { intros c oc Hg. destruct (H _ _ Hg) as (oc' & Hg' & E1 & E2 & E3 & E4 & E5 & _). exists oc'. repeat split; auto. }
  constructor.
  - rewrite Hlen. apply (R_len _ _ HR).
  - rewrite Hlen. apply (R_bound _ _ HR).
  - intros i o' Hg. destruct (Hinv _ _ Hg) as (o & Ho & _ & E & _). rewrite E. eapply R_index; eauto.
  - intros i o' Hg Hl. destruct (Hinv _ _ Hg) as (o & Ho & E1 & E2 & E3 & E4 & E5 & E6 & E7).
    rewrite E1 in Hl. destruct (R_kids _ _ HR _ _ Ho Hl) as (F & L & C & N0).
    rewrite E6, E7. repeat split; auto. eapply chain_frame; [|exact C]. intros c oc _ Hgc. auto.
  - intros i o' Hg Hl. destruct (Hinv _ _ Hg) as (o & Ho & E1 & E2 & E3 & E4 & E5 & E6 & E7).
    rewrite E1 in Hl. rewrite E3, E4, E5. eapply R_up; eauto.
  - intros i o' Hg Hf. destruct (Hinv _ _ Hg) as (o & Ho & E1 & _). rewrite E1 in Hf. eapply R_freed; eauto.
  - destruct (R_flist _ _ HR) as [Hc Hn]. split; auto. rewrite Hfree.
    eapply fchain_frame2; [|exact Hc]. intros x o _ Hg. auto.
  - intros i o' Hg Hl. destruct (Hinv _ _ Hg) as (o & Ho & E1 & _). rewrite E1 in Hl.
    destruct (R_acyc _ _ HR _ _ Ho Hl) as (k & Hd). exists k.
    eapply Depth_transfer with (P := fun _ => True); [|exact Hd|exact I].
    intros j oj _ Hgj Hlj. split; auto.
    destruct (H _ _ Hgj) as (oj' & Hgj' & F1 & _ & F3 & _). exists oj'. repeat split; auto. congruence.
Qed.

Lemma R_set_name {V} (t : ObjectTree V) g p nm : R t g -> R (tset t p (set_name nm)) g.
Proof.
  intros HR. apply R_ext with (t := t); auto; [apply tset_len|].
  intros i o Hg. rewrite get_tset, Hg. cbn [option_map].
  destruct (i =? p); eexists; split; eauto; repeat split; auto.
Qed.

(** ---- creation ---- *)
Lemma opcodeMap_len : length tree_opcodeMap = 256%nat.
Proof. reflexivity. Qed.

Lemma pOpcodeTableIndex_ok opc : opcode_in_maps opc -> exists info, pOpcodeTableIndex opc true = Ok info.
Proof.
  intros H. unfold pOpcodeTableIndex. destruct (N.leb_spec opc 0xff) as [Hle|Hgt].
  - destruct (nth_error tree_opcodeMap (N.to_nat opc)) eqn:E; eauto.
    apply nth_error_None in E. rewrite opcodeMap_len in E. lia.
  - destruct H as [H|H]; [lia|].
    destruct (nth_error tree_extendedOpcodeMap (N.to_nat (opc - 0xff))) eqn:E.
    + destruct ((n =? tree_badOpcode) && true); eauto.
    + apply nth_error_None in E. lia.
Qed.

Lemma kids_app_nil g i : kids (mkGhost (g_kids g ++ [[]]) []) i = kids g i.
Proof.
  unfold kids. cbn [g_kids].
  destruct (Nat.ltb_spec (N.to_nat i) (length (g_kids g))) as [H|H].
  - apply app_nth1. exact H.
  - rewrite (nth_overflow (g_kids g)) by lia.
    destruct (Nat.eq_dec (N.to_nat i) (length (g_kids g))) as [E|E].
    + rewrite app_nth2 by lia. rewrite E, Nat.sub_diag. reflexivity.
    + apply nth_overflow. rewrite app_length. cbn [length]. lia.
Qed.

Lemma newObject_R {V} (t : ObjectTree V) g opc th :
  R t g -> legal_new g opc ->
  exists t' p, newObject t opc th = Ok (t', p) /\ R t' (astep g (OpNew opc th)) /\
               (exists po, get t' p = Some po) /\
               p = match g_free g with [] => N.of_nat (length (t_pool t)) | x :: _ => x end.
Proof.
  intros HR (Hopc & Hmaps & Hroom).
  destruct (pOpcodeTableIndex_ok opc Hmaps) as (info & Hinfo).
  destruct (R_flist _ _ HR) as [Hfc Hfnd].
  unfold newObject. cbn [astep].
  destruct (g_free g) as [|x rest] eqn:Egf.
  - (* grow *)
    cbn [fchain] in Hfc. rewrite Hfc, N.eqb_refl. cbn [bind]. rewrite Hinfo. cbn [bind].
    set (n := length (t_pool t)).
    set (t1 := mkTree (t_pool t ++ [blank_object (pool_len t)]) InvalidIndex).
    assert (Hlen1 : length (t_pool t1) = S n) by (unfold t1; cbn [t_pool]; rewrite app_length; cbn [length]; lia).
    assert (Hget1 : get t1 (N.of_nat n) = Some (blank_object (pool_len t))).
    { unfold get, t1. cbn [t_pool]. rewrite Nat2N.id. rewrite nth_error_app2 by (unfold n; lia).
      unfold n. rewrite Nat.sub_diag. reflexivity. }
    rewrite (wr_ok _ _ _ _ Hget1). cbn [bind].
    eexists _, _. split; [reflexivity|].
    assert (Hold : forall i, i <> N.of_nat n -> get (tset t1 (N.of_nat n) (init_object opc info th)) i = get t i).
    { intros i Hne. rewrite get_tset. apply N.eqb_neq in Hne. rewrite Hne.
      unfold get, t1. cbn [t_pool].
      destruct (Nat.ltb_spec (N.to_nat i) n) as [Hlt|Hge].
      - apply nth_error_app1. exact Hlt.
      - assert (HN : nth_error (t_pool t) (N.to_nat i) = None) by (apply nth_error_None; unfold n in Hge; lia).
        rewrite HN. apply nth_error_None. rewrite app_length. cbn [length]. apply N.eqb_neq in Hne. fold n. lia. }
    pose proof (R_len _ _ HR) as HRlen. pose proof (R_bound _ _ HR) as HRb. fold n in HRlen, HRb.
    specialize (Hroom eq_refl). rewrite HRlen in Hroom.
    assert (Hkn : kids g (N.of_nat n) = []) by (apply kids_oob; lia).
    split; [|split].
    + apply R_change_one with (t := t) (g := g) (x := N.of_nat n); auto.
      * cbn [g_kids]. rewrite tset_len, Hlen1, app_length. cbn [length]. lia.
      * rewrite tset_len, Hlen1. lia.
      * apply kids_app_nil.
      * intros p Hin. destruct (R_In_kids t g HR _ _ Hin) as (_ & co & Hc & _). apply get_lt in Hc. fold n in Hc. lia.
      * intros xo' Hg'. rewrite get_tset, N.eqb_refl, Hget1 in Hg'. cbn [option_map] in Hg'. inversion Hg'; subst xo'.
        fld. unfold blank_object. fld. split.
        -- rewrite (pool_len_eq t HRb). reflexivity.
        -- split; auto; intros E; congruence.
      * cbn [g_free fchain]. reflexivity.
      * intros i _ Hin. rewrite Egf in Hin. contradiction.
    + rewrite get_tset, N.eqb_refl, Hget1. cbn [option_map]. eauto.
    + reflexivity.
  - (* reuse *)
    cbn [fchain] in Hfc. destruct Hfc as (Hhead & xo & Hx & Hxf & Hrest).
    assert (Hxv : x <> InvalidIndex) by (eapply (R_pos_not_Inv t g HR); eauto).
    rewrite Hhead. apply N.eqb_neq in Hxv. rewrite Hxv. rewrite deref_get, Hx. cbn [bind]. rewrite Hinfo. cbn [bind].
    set (t1 := mkTree (t_pool t) (o_next xo)).
    assert (Hget1 : get t1 x = Some xo) by exact Hx.
    rewrite (wr_ok _ _ _ _ Hget1). cbn [bind].
    eexists _, _. split; [reflexivity|].
    destruct (R_freed _ _ HR _ _ Hx Hxf) as [Hkx _].
    apply NoDup_cons_iff in Hfnd. destruct Hfnd as [Hxnin Hnd'].
    split; [|split].
    + apply R_change_one with (t := t) (g := g) (x := x); auto.
      * cbn [g_kids]. rewrite tset_len. apply (R_len _ _ HR).
      * rewrite tset_len. apply (R_bound _ _ HR).
      * intros i Hne. rewrite get_tset. apply N.eqb_neq in Hne. rewrite Hne. reflexivity.
      * intros p Hin. destruct (R_In_kids t g HR _ _ Hin) as (_ & co & Hc & Hcl & _). congruence.
      * intros xo' Hg'. rewrite get_tset, N.eqb_refl, Hget1 in Hg'. cbn [option_map] in Hg'. inversion Hg'; subst xo'.
        fld. split; [eapply R_index; eauto|]. split; auto; intros E; congruence.
      * cbn [g_free]. rewrite tset_free. cbn [t_free t1]. eapply fchain_frame; [|exact Hrest].
        intros y Hy. rewrite get_tset. assert (Hyx : y <> x) by (intros ->; contradiction).
        apply N.eqb_neq in Hyx. rewrite Hyx. reflexivity.
      * intros i Hne Hin. rewrite Egf in Hin. destruct Hin as [E|Hin]; [congruence|exact Hin].
    + rewrite get_tset, N.eqb_refl, Hget1. cbn [option_map]. eauto.
    + reflexivity.
Qed.

Lemma newNamedObject_R {V} (t : ObjectTree V) g opc th nm :
  R t g -> legal_new g opc ->
  exists t' p, newNamedObject t opc th nm = Ok (t', p) /\ R t' (astep g (OpNewNamed opc th nm)) /\
               p = match g_free g with [] => N.of_nat (length (t_pool t)) | x :: _ => x end.
Proof.
  intros HR HL. destruct (newObject_R t g opc th HR HL) as (t1 & p & Hn & HR1 & (po & Hp) & Ep).
  unfold newNamedObject. rewrite Hn. cbn [bind]. rewrite (wr_ok _ _ _ _ Hp). cbn [bind].
  eexists _, _. split; [reflexivity|]. split; auto.
  cbn [astep] in *. apply R_set_name. exact HR1.
Qed.

(** every legal edit preserves R and performs the list operation *)
Lemma step_R {V} (t : ObjectTree V) g o :
  R t g -> legal g o -> exists t', step t o = Ok t' /\ R t' (astep g o).
Proof.
  intros HR HL. destruct o as [opc th|opc th nm|a b|a b c|a b|a]; cbn [step].
  - destruct (newObject_R t g opc th HR HL) as (t' & p & Hn & HR' & _). rewrite Hn. cbn [bind fst]. eauto.
  - destruct (newNamedObject_R t g opc th nm HR HL) as (t' & p & Hn & HR' & _). rewrite Hn. cbn [bind fst]. eauto.
  - apply append_R; auto.
  - apply appendAfter_R; auto.
  - apply detach_R; auto.
  - apply free_R; auto.
Qed.

Lemma run_R {V} (ops : list op) : forall (t : ObjectTree V) g,
  R t g -> legal_seq g ops -> exists t', run t ops = Ok t' /\ R t' (arun g ops).
Proof.
  induction ops as [|o ops IH]; intros t g HR HL; cbn [run arun].
  - eauto.
  - destruct HL as [H1 H2]. destruct (step_R t g o HR H1) as (t1 & Hs & HR1).
    rewrite Hs. cbn [bind]. apply IH; auto.
Qed.

Lemma R_empty {V} : R (@NewObjectTree V) ghost0.
Proof.
  assert (Hn : forall i, get (@NewObjectTree V) i = None).
  { intros i. unfold get, NewObjectTree. cbn [t_pool]. destruct (N.to_nat i); reflexivity. }
  constructor; try (intros i o Hg; rewrite Hn in Hg; discriminate).
  - reflexivity.
  - cbn. rewrite Inv_val. lia.
  - split; [reflexivity|constructor].
Qed.

(** freed slots are reused before the pool grows *)
Lemma reuse_before_grow_lemma {V} (t t' : ObjectTree V) g opc th p :
  R t g -> newObject t opc th = Ok (t', p) ->
  ((exists i o, get t i = Some o /\ o_opcode o = opFreed) ->
      length (t_pool t') = length (t_pool t) /\
      (exists o, get t p = Some o /\ o_opcode o = opFreed) /\
      (exists o', get t' p = Some o' /\ o_opcode o' = opc)) /\
  ((forall i o, get t i = Some o -> o_opcode o <> opFreed) ->
      length (t_pool t') = S (length (t_pool t)) /\ p = N.of_nat (length (t_pool t))).
Proof.
  intros HR Hn. destruct (R_flist _ _ HR) as [Hfc _].
  unfold newObject in Hn.
  destruct (g_free g) as [|x rest] eqn:Egf; cbn [fchain] in Hfc.
  - rewrite Hfc, N.eqb_refl in Hn. cbn [bind] in Hn.
    destruct (pOpcodeTableIndex opc true) as [info| |]; cbn [bind] in Hn; try discriminate.
    unfold wr in Hn. destruct (deref _ _); cbn [bind] in Hn; try discriminate.
    inversion Hn; subst t' p. cbn [t_pool]. rewrite list_upd_length, app_length. cbn [length].
    split.
    + intros (i & o & Hg & Hf). destruct (R_freed _ _ HR _ _ Hg Hf) as [_ Hin]. rewrite Egf in Hin. contradiction.
    + intros _. split; [lia|reflexivity].
  - destruct Hfc as (Hhead & xo & Hx & Hxf & _).
    assert (Hxv : x <> InvalidIndex) by (eapply (R_pos_not_Inv t g HR); eauto).
    rewrite Hhead in Hn. apply N.eqb_neq in Hxv. rewrite Hxv in Hn. rewrite deref_get, Hx in Hn. cbn [bind] in Hn.
    destruct (pOpcodeTableIndex opc true) as [info| |]; cbn [bind] in Hn; try discriminate.
    set (t1 := mkTree (t_pool t) (o_next xo)) in *.
    assert (Hget1 : get t1 x = Some xo) by exact Hx.
    rewrite (wr_ok _ _ _ _ Hget1) in Hn. cbn [bind] in Hn. inversion Hn; subst t' p.
    split.
    + intros _. split; [rewrite tset_len; reflexivity|]. split; [eauto|].
      rewrite get_tset, N.eqb_refl, Hget1. cbn [option_map]. eexists. split; [reflexivity|]. reflexivity.
    + intros Hall. exfalso. eapply Hall; eauto.
Qed.

(** ---- a slot stays live as long as it is not freed (used for the root scope, slot 0) ---- *)
Lemma glive_astep g o i : glive g i -> o <> OpFree i -> glive (astep g o) i.
Proof.
  intros [Hlt Hnin] Hne.
  assert (Hsk : forall p l, glive (set_kids g p l) i).
  { intros p l. split; [rewrite set_kids_len; auto | exact Hnin]. }
  destruct o as [opc th|opc th nm|a b|a b c|a b|x]; cbn [astep]; auto.
  1, 2: destruct (g_free g) as [|y rest] eqn:E; split; cbn [g_kids g_free]; auto;
    [rewrite app_length; cbn [length]; lia | intros Hin; apply Hnin; right; exact Hin].
  - assert (Hxi : x <> i) by (intros ->; apply Hne; reflexivity).
    destruct (parent_of g x) as [p|]; split; cbn [g_kids g_free]; try (rewrite set_kids_len); auto;
      intros [E|Hin]; auto.
Qed.

Lemma glive_arun ops : forall g i, glive g i -> ~ In (OpFree i) ops -> glive (arun g ops) i.
Proof.
  induction ops as [|o ops IH]; intros g i Hl Hn; cbn [arun]; auto.
  apply IH.
  - apply glive_astep; auto. intros ->. apply Hn. left. reflexivity.
  - intros Hin. apply Hn. right. exact Hin.
Qed.
