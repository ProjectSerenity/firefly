(** C11 (fragment F5): the recogniser [in_fragment_F5] of the fragment F4 extended by the leaf named objects, its soundness [f5_item_ast],
    and [parse_encode_F5], the instance of [parse_encode_one] (ParserFragF3Final.v) for it.

    F5 = F4 + Mutex(SEG, sync flags), Event(SEG) and OperationRegion(SEG, space, offset, length) whose offset and
    length are integer constants (Zero / One / Ones / Byte- / Word- / DWord- / QWordPrefix): single-segment names;
    anywhere an item of F4 may stand (top level, bodies of Device / ThermalZone / Processor / PowerResource / Method,
    inside the Scope directives over the predefined scopes).
    Productions added to F4: DefMutex (NameString = NameSeg, SyncFlags ByteData), DefEvent, DefOpRegion (RegionSpace
    ByteData, RegionOffset / RegionLen TermArg = integer constant).  For an OperationRegion the first pass leaves the
    two TermArgs as the next objects of the enclosing scope; connectNamedObjArgs attaches them (attachSiblingsAsArgs,
    two siblings). *)
From Coq Require Import NArith List Bool.
From FF Require Import Aml.Grammar Aml.WfProgram Aml.ParserFragF0 Aml.ParserFragArgs Aml.ParserFragF1
  Aml.ParserFragF0Final Aml.ParserFragF1Final Aml.ParserFragScope Aml.ParserFragF3Final.
Import ListNotations.
Local Open Scope N_scope.

Fixpoint f5_item (a : ast) : option item :=
  let go := fix go (l : list ast) : option (list item) :=
              match l with
              | [] => Some []
              | x :: t => match f5_item x, go t with Some i, Some r => Some (i :: r) | _, _ => None end
              end in
  let blk (bk : bkind) (k : N) (nm : namestr) (fa : list N) (body : list ast) : option item :=
      match simple_name nm, go body with
      | Some seg, Some b => Some (IBlk bk k seg fa b)
      | _, _ => None
      end in
  match a with
  | AName nm (AConst op v) => match simple_name nm with Some seg => Some (IName (mkDecl seg op v)) | None => None end
  | ADevice k nm body => blk BDev k nm [] body
  | AThermal k nm body => blk BTZ k nm [] body
  | AProcessor k nm id addr len body => blk BProc k nm [id; addr; len] body
  | APowerRes k nm level order body => blk BPwr k nm [level; order] body
  | AMethod k nm fl body => blk BMeth k nm [fl] body
  | AMutex nm sync => match simple_name nm with Some seg => Some (ILeaf LMutex seg [sync] []) | None => None end
  | AEvent nm => match simple_name nm with Some seg => Some (ILeaf LEvent seg [] []) | None => None end
  | AOpRegion nm space (AConst op1 v1) (AConst op2 v2) =>
      match simple_name nm with Some seg => Some (ILeaf LOpReg seg [space] [TInt (mkDecl 0 op1 v1); TInt (mkDecl 0 op2 v2)]) | None => None end
  | _ => None
  end.

Fixpoint f5_items (l : list ast) : option (list item) :=
  match l with
  | [] => Some []
  | x :: t => match f5_item x, f5_items t with Some i, Some r => Some (i :: r) | _, _ => None end
  end.

Definition f5_titem (a : ast) : option titem :=
  match a with
  | AScope k nm body =>
      match scope_target nm, f5_items body with
      | Some (root, d), Some b => Some (TScope k root d b)
      | _, _ => None
      end
  | _ => match f5_item a with Some it => Some (TItem it) | None => None end
  end.

Fixpoint f5_titems (l : list ast) : option (list titem) :=
  match l with
  | [] => Some []
  | x :: t => match f5_titem x, f5_titems t with Some i, Some r => Some (i :: r) | _, _ => None end
  end.

Definition in_fragment_F5 (tables : list (list ast)) : bool :=
  match tables with
  | [p] => match f5_titems p with Some _ => lenN (encode_table p) <? 0x10000000 | None => false end
  | _ => false
  end.

Lemma f5_item_ast : forall a, sound f5_item a.
Proof.
  induction a as [a IH] using ast_body_ind. intros it.
  destruct a as [ | | | | | | | | | | | | | k nm body | k nm body | k nm id addr len body | k nm level order body | k nm fl body | nm v | nm space off len | | | | nm sync | nm ]; try discriminate; cbn [f5_item body_of] in *.
  1-5: apply (blk_sound f5_item); [reflexivity|exact IH].
  - destruct v; try discriminate. intros E; destruct (name_sound _ _ _ E) as (seg & -> & ->); split; reflexivity.
  - destruct off; try discriminate. destruct len; try discriminate. intros E; destruct (name_sound _ _ _ E) as (seg & -> & ->); split; reflexivity.
  - intros E; destruct (name_sound _ _ _ E) as (seg & -> & ->); split; reflexivity.
  - intros E; destruct (name_sound _ _ _ E) as (seg & -> & ->); split; reflexivity.
Qed.

Theorem parse_encode_F5 : forall tables,
  wf_program tables = true -> in_fragment_F5 tables = true -> parse_encode_statement tables.
Proof. exact (parse_encode_one f5_item f5_item_ast). Qed.
