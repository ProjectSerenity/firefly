(** C11 (fragment F3): connectNamedObjArgs over the top-level items (Scope directives are not named objects: only
    their bodies change). *)
From Coq Require Import NArith ZArith Arith List Bool Lia.
From Coq Require Import ZifyBool ZifyN ZifyNat.
From FF Require Import Lib.Word Gen.Consts_device_acpi_aml Gen.Consts_aml_tree Aml.Stream Aml.Lex Aml.LexProofs
  Aml.Tree Aml.TreeSpec Aml.TreeProofs Aml.TreeProofsOps Aml.TreeProofsFind Aml.Parser Aml.Grammar Aml.LexRoundtrip
  Aml.ParserTotalTree Aml.ParserTotalBase
  Aml.ParserFragBase Aml.ParserFragFirst Aml.ParserFragF0 Aml.ParserFragConn Aml.ParserFragF0Conn Aml.ParserFragWalk
  Aml.ParserFragF0Top Aml.ParserFragRose Aml.ParserFragDev Aml.ParserFragF1 Aml.ParserFragF1First Aml.ParserFragF1Conn Aml.ParserFragScope.
Import ListNotations.
Local Open Scope N_scope.

Definition tclen_item (x : titem) : nat := match x with TItem it => clen [it] | TScope _ _ _ _ => 1%nat end.
Definition tclen (l : list titem) : nat := fold_right (fun x n => (tclen_item x + n)%nat) O l.
Definition tcfuel_item (x : titem) : nat := match x with TItem it => cfuel_item it | TScope _ _ _ body => (6 + cfuel body)%nat end.
Definition tcfuel (l : list titem) : nat := fold_right (fun x n => (tcfuel_item x + n)%nat) O l.

Lemma tclen_le_tcfuel l : (tclen l <= tcfuel l)%nat.
Proof.
  induction l as [|[it|k root d body] t IH]; [cbn; lia| |]; cbn [tclen tcfuel fold_right tclen_item tcfuel_item]; fold (tclen t); fold (tcfuel t).
  - pose proof (clen_le_cfuel [it]). cbn [cfuel fold_right] in H. lia.
  - lia.
Qed.

(** composition: the later siblings first, then the earlier ones *)
Lemma Post2_compose g pl g1 pl1 g2 pl2 x b n1 n2 pre post tr1 tr2 :
  (x < b \/ b + N.of_nat (n1 + n2) <= x) ->
  (forall y, In y (rnodesl tr2) -> b + N.of_nat n1 <= y < b + N.of_nat (n1 + n2)) ->
  Post2 g pl g1 pl1 x (b + N.of_nat n1) n2 (pre ++ map ridx tr1) post tr2 ->
  (forall tr1', Post2 g1 pl1 g2 pl2 x b n1 pre (map ridx tr2 ++ post) tr1' -> Post2 g pl g2 pl2 x b (n1 + n2) pre post (tr1' ++ tr2)).
Proof.
  intros Hx Hn [A1 A2 A3 A4] tr1' [B1 B2 B3 B4]. constructor.
  - rewrite B1, map_app, <- !app_assoc. reflexivity.
  - apply Forall_app. split; [exact B2|]. apply (Desc_frame_l g1 pl1); [exact A2|].
    intros y Hy. destruct (Hn y Hy) as (Hlo & Hhi). split; [apply B3; clear -Hhi Hlo Hx; lia|apply B4; clear -Hlo; lia].
  - intros y Hy Hyx. rewrite B3 by (clear -Hyx Hy; lia). apply A3; [clear -Hy; lia|exact Hyx].
  - intros y Hy. rewrite B4 by (clear -Hy; lia). apply A4. clear -Hy; lia.
Qed.

Section TConn.
Variable h tbl : N.
Variable tbls : list (list N).
Variable data : list N.
Hypothesis Hnth : nth_error tbls (N.to_nat tbl) = Some data.

(** [R]: the fuel the continuation still gets; at least 8 because a Scope directive costs seven nested calls of
    connectNamed_loop / connectNamedObjArgs beyond what [tcfuel] counts for its body ([tcspec_scope]). *)
Definition TCSpec (ts : list titem) : Prop :=
  forall x pre post b off s g pl f ax R dpre dpost (Q : pres -> pstate -> Prop),
  Rep (p_tree s) g pl ->
  kids g x = pre ++ map ridx (tlay1 h tbl b off ts) ++ post ->
  Forall (Desc g pl) (tlay1 h tbl b off ts) ->
  pget pl x = Some ax -> y_op ax <> opFreed -> (x < b \/ b + N.of_nat (tszs ts) <= x) ->
  p_handle s = h -> p_tables s = tbls -> data = dpre ++ enc_titems ts ++ dpost -> off = lenN dpre ->
  forallb titem_okb ts = true ->
  (8 <= R)%nat -> (tcfuel ts + R <= f)%nat ->
  (forall t' g' pl', Rep t' g' pl' -> Post2 g pl g' pl' x b (tszs ts) pre post (tlay2 h tbl b off ts) ->
     wp False (connectNamed_loop (f - tclen ts) x (last pre InvalidIndex)) (with_tree s t') Q) ->
  wp False (connectNamed_loop f x (last (pre ++ map ridx (tlay1 h tbl b off ts)) InvalidIndex)) s Q.

Lemma tcspec_nil : TCSpec [].
Proof.
  intros x pre post b off s g pl f ax R dpre dpost Q H Hk HD Hx Hlx Hrange Hh Htb Hdata Hoff Hok HR Hf K.
  cbn [tlay1 map tclen fold_right] in *. rewrite app_nil_r. rewrite Nat.sub_0_r in K.
  specialize (K (p_tree s) g pl H). assert (E : with_tree s (p_tree s) = s) by (destruct s; reflexivity). rewrite E in K.
  apply K. constructor; auto.
Qed.

Lemma tcspec_item it rest : TCSpec rest -> TCSpec (TItem it :: rest).
Proof.
  intros IH x pre post b off s g pl f ax R dpre dpost Q H Hk HD Hx Hlx Hrange Hh Htb Hdata Hoff Hok HR Hf K.
  cbn [forallb titem_okb] in Hok. apply andb_prop in Hok. destruct Hok as [Hit Hok].
  rewrite tlay1_cons in Hk, HD |- *. rewrite tszs_cons in Hrange. cbn [tsz tlay1_item enc_titem] in *.
  cbn [tcfuel fold_right tcfuel_item] in Hf. fold (tcfuel rest) in Hf.
  rewrite map_app in Hk |- *. apply Forall_app in HD. destruct HD as [HDit HDrest].
  rewrite enc_titems_cons in Hdata. cbn [enc_titem] in Hdata.
  set (B' := b + N.of_nat (isz it)) in *. set (off' := off + lenN (enc_item it)) in *.
  rewrite app_assoc.
  eapply (IH x (pre ++ map ridx (lay1_item h tbl b off it)) post B' off' s g pl f ax (R + cfuel_item it)%nat (dpre ++ enc_item it) dpost Q);
    [exact H|rewrite Hk, <- !app_assoc; reflexivity|exact HDrest|exact Hx|exact Hlx|unfold B'; clear -Hrange; lia|exact Hh|exact Htb| | |exact Hok|clear -HR; lia|clear -Hf; lia|].
  { rewrite Hdata, <- !app_assoc. reflexivity. }
  { unfold off'. rewrite Hoff. symmetry. apply lenN_app. }
  intros t1 g1 pl1 H1 P1. pose proof P1 as [Q1 Q2 Q3 Q4].
  assert (Hout : forall y, b <= y < b + N.of_nat (isz it) -> (y < B' \/ B' + N.of_nat (tszs rest) <= y) /\ y <> x) by (intros y Hy; unfold B'; clear -Hy Hrange; lia).
  assert (HDit1 : Forall (Desc g1 pl1) (lay1 h tbl b off [it])).
  { rewrite lay1_single. apply (Desc_frame_l g pl); [exact HDit|]. intros y Hy. rewrite <- lay1_single in Hy. apply lay1_nodes in Hy.
    cbn [iszs fold_right] in Hy. split; [apply Q3; apply Hout; clear -Hy; lia|apply Q4; apply Hout; clear -Hy; lia]. }
  assert (Px1 : pget pl1 x = Some ax) by (rewrite Q4 by (unfold B'; clear -Hrange; lia); exact Hx).
  rewrite <- lay1_single.
  eapply (cspec_all h tbl tbls data Hnth [it] x pre (map ridx (tlay2 h tbl B' off' rest) ++ post) b off (with_tree s t1) g1 pl1 _ ax
            (f - tclen rest - cfuel_item it)%nat dpre (enc_titems rest ++ dpost) Q);
    [exact H1| |exact HDit1|exact Px1|exact Hlx|cbn [iszs fold_right]; clear -Hrange; lia|exact Hh|exact Htb| |exact Hoff|cbn [forallb]; rewrite Hit; reflexivity| | |].
  { rewrite Q1, lay1_single, <- !app_assoc. reflexivity. }
  { rewrite Hdata. cbn [enc_items flat_map]. rewrite app_nil_r, <- !app_assoc. reflexivity. }
  { pose proof (tclen_le_tcfuel rest). clear -H0 Hf HR; lia. }
  { pose proof (tclen_le_tcfuel rest). cbn [cfuel fold_right]. clear -H0 Hf; lia. }
  intros t2 g2 pl2 H2 P2.
  replace (f - tclen rest - clen [it])%nat with (f - tclen (TItem it :: rest))%nat by (cbn [tclen fold_right tclen_item]; fold (tclen rest); clear; lia).
  apply (K t2 _ _ H2). rewrite tlay2_cons. cbn [tlay2_item tsz enc_titem]. fold B' off'. rewrite tszs_cons. cbn [tsz].
  rewrite <- lay2_single.
  eapply (Post2_compose g pl g1 pl1 g2 pl2 x b (isz it) (tszs rest) pre post (lay1_item h tbl b off it)); [clear -Hrange; lia| |exact P1|].
  - intros y Hy. apply tlay2_nodes in Hy. unfold B' in Hy. clear -Hy; lia.
  - cbn [iszs fold_right] in P2. rewrite Nat.add_0_r in P2. exact P2.
Qed.

Lemma tcspec_scope k root d body rest : TCSpec rest -> TCSpec (TScope k root d body :: rest).
Proof.
  intros IH x pre post b off s g pl f ax R dpre dpost Q H Hk HD Hx Hlx Hrange Hh Htb Hdata Hoff Hok HR Hf K.
  cbn [forallb titem_okb] in Hok. apply andb_prop in Hok. destruct Hok as [Hd_ok Hok].
  apply andb_prop in Hd_ok. destruct Hd_ok as [Hx' Hbody_ok]. apply andb_prop in Hx'. destruct Hx' as [_ Hpk]. apply pkglen_okb_adm in Hpk.
  rewrite tlay1_cons in Hk, HD |- *. rewrite tszs_cons in Hrange. cbn [tsz tlay1_item enc_titem] in *.
  cbn [tcfuel fold_right tcfuel_item] in Hf. fold (tcfuel rest) in Hf.
  rewrite map_app in Hk |- *. cbn [map ridx] in Hk |- *.
  set (nl := sc_len root) in *. set (seg := dseg d) in *. unfold sc_body in *. fold seg in Hk, HD, Hpk |- *.
  set (v := k + lenN (enc_name (sc_name root seg) ++ enc_items body)) in *.
  pose proof (lenN_enc_pkglen k v Hpk) as Hlk.
  set (off1 := off + 1 + k + nl) in *.
  set (B' := b + N.of_nat (3 + iszs body)) in *.
  set (off' := off + lenN (enc_op OP_SCOPE ++ enc_pkglen k v ++ enc_name (sc_name root seg) ++ enc_items body)) in *.
  apply Forall_app in HD. destruct HD as [HDit HDrest].
  pose proof (Forall_inv HDit) as DD. clear HDit.
  destruct (Desc_inv _ _ _ _ _ DD) as (PD & KD & HD2). cbn [map ridx] in KD.
  pose proof (Forall_inv HD2) as DP. pose proof (Forall_inv (Forall_inv_tail HD2)) as DS. clear HD2.
  destruct (Desc_inv _ _ _ _ _ DP) as (PP & KP & _). destruct (Desc_inv _ _ _ _ _ DS) as (PS & KS & HDbody). cbn [map] in KP.
  rewrite enc_titems_cons in Hdata. cbn [enc_titem] in Hdata. unfold sc_body in Hdata. fold seg in Hdata. fold v in Hdata.
  replace (pre ++ [b] ++ map ridx (tlay1 h tbl B' off' rest)) with ((pre ++ [b]) ++ map ridx (tlay1 h tbl B' off' rest)) by (rewrite <- app_assoc; reflexivity).
  eapply (IH x (pre ++ [b]) post B' off' s g pl f ax (R + 6 + cfuel body)%nat (dpre ++ enc_op OP_SCOPE ++ enc_pkglen k v ++ enc_name (sc_name root seg) ++ enc_items body) dpost Q);
    [exact H|rewrite Hk, <- !app_assoc; reflexivity|exact HDrest|exact Hx|exact Hlx|unfold B'; clear -Hrange; lia|exact Hh|exact Htb| | |exact Hok|clear -Hf HR; lia|clear -Hf HR; lia|].
  { rewrite Hdata, <- !app_assoc. reflexivity. }
  { unfold off'. rewrite Hoff. symmetry. apply lenN_app. }
  intros t1 g1 pl1 H1 [Q1 Q2 Q3 Q4].
  assert (Hxne : x <> b /\ x <> b + 1 /\ x <> b + 2) by (clear -Hrange; lia). destruct Hxne as (Hxb & Hxb1 & Hxb2).
  assert (Hout1 : forall y, b <= y < b + N.of_nat (3 + iszs body) -> (y < B' \/ B' + N.of_nat (tszs rest) <= y) /\ y <> x) by (intros y Hy; unfold B'; clear -Hy Hrange; lia).
  assert (KD1 : kids g1 b = [b + 1; b + 2]) by (rewrite Q3 by (apply Hout1; clear; lia); exact KD).
  assert (KP1 : kids g1 (b + 1) = []) by (rewrite Q3 by (apply Hout1; clear; lia); exact KP).
  assert (KS1 : kids g1 (b + 2) = map ridx (lay1 h tbl (b + 3) off1 body)) by (rewrite Q3 by (apply Hout1; clear; lia); exact KS).
  assert (PD1 : pget pl1 b = Some (scp_pay h off)) by (rewrite Q4 by (apply Hout1; clear; lia); exact PD).
  assert (PP1 : pget pl1 (b + 1) = Some (pthn_pay h tbl (off + 1 + k) nl)) by (rewrite Q4 by (apply Hout1; clear; lia); exact PP).
  assert (PS1 : pget pl1 (b + 2) = Some (sb_pay h off1)) by (rewrite Q4 by (apply Hout1; clear; lia); exact PS).
  assert (Px1 : pget pl1 x = Some ax) by (rewrite Q4 by (unfold B'; clear -Hrange; lia); exact Hx).
  assert (HDbody1 : Forall (Desc g1 pl1) (lay1 h tbl (b + 3) off1 body)).
  { apply (Desc_frame_l g pl); [exact HDbody|]. intros y Hy. apply lay1_nodes in Hy.
    split; [apply Q3; apply Hout1; clear -Hy Hrange; lia|apply Q4; apply Hout1; clear -Hy Hrange; lia]. }
  set (l2 := map ridx (tlay2 h tbl B' off' rest) ++ post) in *.
  assert (Hk1 : kids g1 x = pre ++ b :: l2) by (rewrite Q1, <- !app_assoc; reflexivity).
  rewrite last_last.
  assert (EF : exists f', (f - tclen rest = S (S (S (S (S (S (S f')))))))%nat).
  { pose proof (tclen_le_tcfuel rest). exists (f - tclen rest - 7)%nat. clear -H0 Hf HR; lia. }
  destruct EF as (f' & EF). rewrite EF.
  rewrite connectNamed_loop_S. rewrite (rep_not_Inv _ _ _ _ _ H1 PD1).
  apply wp_bind. eapply wp_objectAt_rep; [exact H1|exact PD1|discriminate|].
  apply wp_bind. eapply wp_rdf_rep; [exact H1|exact PD1|discriminate|]. intros od _ Hidx _ _. rewrite Hidx.
  apply wp_bind. rewrite connectNamedObjArgs_S.
  apply wp_bind. eapply wp_objectAt_rep; [exact H1|exact PD1|discriminate|].
  apply wp_bind. eapply wp_rdf_rep; [exact H1|exact PD1|discriminate|]. intros od2 _ _ _ Hlast. rewrite Hlast, KD1. cbn [last].
  rewrite connectNamed_loop_S. rewrite (rep_not_Inv _ _ _ _ _ H1 PS1).
  apply wp_bind. eapply wp_objectAt_rep; [exact H1|exact PS1|discriminate|].
  apply wp_bind. eapply wp_rdf_rep; [exact H1|exact PS1|discriminate|]. intros os _ Hidxs _ _. rewrite Hidxs.
  apply wp_bind. rewrite connectNamedObjArgs_S.
  apply wp_bind. eapply wp_objectAt_rep; [exact H1|exact PS1|discriminate|].
  apply wp_bind. eapply wp_rdf_rep; [exact H1|exact PS1|discriminate|]. intros os2 _ _ _ Hlasts. rewrite Hlasts, KS1.
  change (map ridx (lay1 h tbl (b + 3) off1 body)) with ([] ++ map ridx (lay1 h tbl (b + 3) off1 body)).
  eapply (cspec_all h tbl tbls data Hnth body (b + 2) [] [] (b + 3) off1 (with_tree s t1) g1 pl1 _ (sb_pay h off1) (R + 2)%nat
            (dpre ++ enc_op OP_SCOPE ++ enc_pkglen k v ++ enc_name (sc_name root seg)) (enc_titems rest ++ dpost));
    [exact H1|rewrite KS1, app_nil_r; reflexivity|exact HDbody1|exact PS1|discriminate|clear; lia|exact Hh|exact Htb| | |exact Hbody_ok|clear -Hf HR; lia|pose proof (tclen_le_tcfuel rest); clear -H0 EF Hf; lia|].
  { rewrite Hdata, <- !app_assoc. reflexivity. }
  { unfold off1. rewrite !lenN_app, Hlk, lenN_sc_name, Hoff. change (lenN (enc_op OP_SCOPE)) with 1. fold nl. clear; lia. }
  intros t2 g2 pl2 H2 [U1 U2 U3 U4]. cbn [last app] in U1 |- *. rewrite app_nil_r in U1.
  assert (EF3 : exists f3, (S (S (S f')) - clen body = S f3)%nat).
  { pose proof (clen_le_cfuel body). pose proof (tclen_le_tcfuel rest). exists (S (S (S f')) - clen body - 1)%nat. clear -H3 H0 EF Hf; lia. }
  destruct EF3 as (f3 & EF3). rewrite EF3. rewrite connectNamed_loop_S, N.eqb_refl. apply wp_ret.
  change (negb (pres_eqb ROk ROk)) with false. cbv iota zeta.
  assert (PS2 : pget pl2 (b + 2) = Some (sb_pay h off1)) by (rewrite U4 by (clear; lia); exact PS1).
  assert (PP2 : pget pl2 (b + 1) = Some (pthn_pay h tbl (off + 1 + k) nl)) by (rewrite U4 by (clear; lia); exact PP1).
  assert (PD2 : pget pl2 b = Some (scp_pay h off)) by (rewrite U4 by (clear; lia); exact PD1).
  assert (KD2 : kids g2 b = [b + 1; b + 2]) by (rewrite U3 by (clear; lia); exact KD1).
  assert (KP2 : kids g2 (b + 1) = []) by (rewrite U3 by (clear; lia); exact KP1).
  assert (Kx2 : kids g2 x = pre ++ b :: l2) by (rewrite U3 by (clear -Hrange; lia); exact Hk1).
  apply wp_bind. eapply wp_rdo_rep; [exact H2|exact PS2|discriminate|]. intros aos Hpays _ _ _.
  rewrite (pay_info _ _ Hpays). apply wp_bind. eapply wp_info; [reflexivity|]. cbv beta iota.
  apply wp_bind, wp_get. rewrite (pay_op _ _ Hpays). cbn [sb_pay y_op].
  change (aml_pOpIntScopeBlock =? aml_pOpIntScopeBlock) with true. rewrite orb_true_r.
  apply wp_bind. eapply (wp_rdf_sib False b [b + 1] (b + 2) []); [exact H2|exact KD2|]. intros o' _ _ Hprev _ _. rewrite Hprev. cbn [last].
  eapply (CNloop_leaf _ b (b + 1) [] [b + 2] (pthn_pay h tbl (off + 1 + k) nl) (aml_pOpIntNamePath, 8, 0));
    [exact H2|exact KD2|exact PP2|discriminate|exact KP2|reflexivity|].
  cbn [last]. rewrite connectNamed_loop_S, N.eqb_refl. apply wp_ret.
  (* the directive itself is not a named object *)
  change (negb (pres_eqb ROk ROk)) with false. cbv iota zeta.
  apply wp_bind. eapply wp_rdo_rep; [exact H2|exact PD2|discriminate|]. intros aod Hpayd _ _ _.
  rewrite (pay_info _ _ Hpayd). apply wp_bind. eapply (wp_info False 9 (aml_pOpScope, 0, 67855)); [reflexivity|]. cbv beta iota.
  apply wp_bind, wp_get. change (negb (hasFlag 0 aml_pOpFlagNamed)) with true. cbn [orb].
  apply wp_bind. eapply (wp_rdf_sib False x pre b l2); [exact H2|exact Kx2|]. intros o3 _ _ Hprev3 _ _. rewrite Hprev3.
  replace (S (S (S (S (S (S f')))))) with (f - tclen (TScope k root d body :: rest))%nat by (cbn [tclen fold_right tclen_item]; fold (tclen rest); clear -EF; lia).
  apply (K t2 _ _ H2).
  rewrite tlay2_cons. cbn [tlay2_item tsz enc_titem]. unfold sc_body. fold seg nl v off1 B' off'. rewrite tszs_cons. cbn [tsz]. constructor.
  - rewrite Kx2. rewrite map_app. cbn [map ridx]. unfold l2. rewrite <- !app_assoc. reflexivity.
  - apply Forall_app. split.
    + constructor; [|constructor]. constructor; [exact PD2|exact KD2|].
      constructor; [|constructor; [|constructor]].
      * constructor; [exact PP2|exact KP2|constructor].
      * constructor; [exact PS2|exact U1|exact U2].
    + apply (Desc_frame_l g1 pl1); [exact Q2|]. intros y Hy. apply tlay2_nodes in Hy. unfold B' in Hy.
      split; [apply U3; clear -Hy Hrange; lia|apply U4; clear -Hy Hrange; lia].
  - intros y Hy Hyx. rewrite U3 by (clear -Hy Hrange; lia). apply Q3; [unfold B'; clear -Hy Hrange; lia|exact Hyx].
  - intros y Hy. rewrite U4 by (clear -Hy Hrange; lia). apply Q4. unfold B'. clear -Hy Hrange; lia.
Qed.

Theorem tcspec_all : forall ts, TCSpec ts.
Proof.
  induction ts as [|[it|k root d body] rest IH].
  - apply tcspec_nil.
  - apply tcspec_item. exact IH.
  - apply tcspec_scope. exact IH.
Qed.
End TConn.
