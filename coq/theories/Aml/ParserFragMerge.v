(** C11 (fragment proofs): mergeScopeDirectives.

    [mergeS_all]: the walk leaves alone every sub-tree none of whose nodes is a Scope directive of the table
    (stated for a set of nodes closed under taking children, so that it can be used while other parts of the pool
    still hold Scope directives).
    [rep_free]: the exact effect of [free].
    [move_all]: moveContents moves the children of the ScopeBlock of a directive below the target scope.
    [merge_scope]: one Scope directive over an existing scope: the contents are moved, the directive, its name path
    and its ScopeBlock are freed, and the walk goes on over the moved objects. *)
From Coq Require Import NArith ZArith Arith List Bool Lia.
From Coq Require Import ZifyBool ZifyN ZifyNat.
From FF Require Import Lib.Word Gen.Consts_device_acpi_aml Gen.Consts_aml_tree Aml.Stream Aml.Lex Aml.LexProofs
  Aml.Tree Aml.TreeSpec Aml.TreeProofs Aml.TreeProofsOps Aml.TreeProofsFind Aml.Parser
  Aml.ParserTotalTree Aml.ParserTotalTree2 Aml.ParserTotalBase Aml.ParserTotalMerge
  Aml.ParserFragBase Aml.ParserFragFirst Aml.ParserFragConn Aml.ParserFragWalk Aml.ParserFragRose.
Import ListNotations.
Local Open Scope N_scope.

(** ---- the walk over nodes that are not Scope directives ---- *)
Section MergeS.
Variable g : ghost.
Variable pl : list pay.
Variable h : N.
Variable S : N -> Prop.
Hypothesis Sclosed : forall y c, S y -> In c (kids g y) -> S c.
Hypothesis S0 : forall y, S y -> y <> 0.
Hypothesis Hall : forall y a, S y -> pget pl y = Some a -> y_op a <> opFreed -> merge_ok h a.

Definition MWs (f : nat) : Prop := forall x a s, Rep (p_tree s) g pl -> p_handle s = h -> S x ->
  pget pl x = Some a -> y_op a <> opFreed -> fwalk g f x ->
  wp False (mergeScopeDirectives f x) s (fun r s' => r = ROk /\ s' = s).

Definition MLs (f : nat) : Prop := forall p l1 l2 res s, Rep (p_tree s) g pl -> p_handle s = h ->
  kids g p = l1 ++ l2 -> (forall c, In c l2 -> S c) -> floop g f l2 ->
  wp False (mergeScope_loop f (hd InvalidIndex l2) res) s (fun r s' => r = res /\ s' = s).

Lemma mergeS_walk f : MLs f -> MWs (Datatypes.S f).
Proof.
  intros IHl x a s H Hh HSx Ha Hl Hf. rewrite mergeScopeDirectives_S.
  apply wp_bind. eapply wp_objectAt_rep; [exact H|exact Ha|exact Hl|].
  apply wp_bind. eapply wp_rdf_rep; [exact H|exact Ha|exact Hl|]. intros o _ _ Hfirst _. rewrite Hfirst.
  apply wp_bind. pose proof (S0 x HSx) as Hx0. apply N.eqb_neq in Hx0. rewrite Hx0. apply wp_ret.
  apply wp_bind. eapply wp_rdo_rep; [exact H|exact Ha|exact Hl|]. intros oo Hpay _ Hfirst' _.
  destruct (Hall x a HSx Ha Hl) as (op & flags & af & Hrow & Hcond). rewrite (pay_info _ _ Hpay).
  apply wp_bind. eapply wp_info; [exact Hrow|]. cbv beta iota.
  destruct (hasFlag flags aml_pOpFlagExecutable) eqn:Ex; [apply wp_ret; auto|].
  destruct Hcond as [Hc|Hc]; [discriminate|].
  apply wp_bind, wp_get. rewrite (pay_op _ _ Hpay), (pay_th _ _ Hpay), Hh, Hc.
  apply wp_bind. apply wp_ret. cbv iota.
  cbn [fwalk] in Hf. eapply wp_conseq; [apply (IHl x [] (kids g x) ROk s H Hh eq_refl)|].
  - intros c Hc'. eapply Sclosed; eauto.
  - exact Hf.
  - intros r s' HQ. exact HQ.
Qed.

Lemma mergeS_loop f : MWs f -> MLs f -> MLs (Datatypes.S f).
Proof.
  intros IHw IHl p l1 l2 res s H Hh Hk HS Hf. rewrite mergeScope_loop_S.
  destruct l2 as [|c r]; cbn [hd]; [rewrite N.eqb_refl; apply wp_ret; auto|].
  assert (Hin : In c (kids g p)) by (rewrite Hk; apply in_or_app; right; left; reflexivity).
  destruct (rep_kid_pay _ _ _ _ _ H Hin) as (ac & Hac & Hlc).
  rewrite (rep_not_Inv _ _ _ _ _ H Hac).
  apply wp_bind. eapply wp_objectAt_rep; [exact H|exact Hac|exact Hlc|].
  apply wp_bind. eapply (wp_rdf_sib False p l1 c r); [exact H|exact Hk|]. intros o _ _ _ Hnext _. rewrite Hnext.
  apply wp_bind. eapply (wp_rdf_sib False p l1 c r); [exact H|exact Hk|]. intros o' Hidx _ _ _ _. rewrite Hidx.
  cbn [floop] in Hf. destruct Hf as [Hfc Hfr].
  apply wp_bind. eapply wp_conseq; [apply (IHw c ac s H Hh (HS c (or_introl eq_refl)) Hac Hlc Hfc)|]. intros r0 s' (-> & ->).
  cbv iota. apply (IHl p (l1 ++ [c]) r res s H Hh); [rewrite <- app_assoc; exact Hk| |exact Hfr].
  intros c' Hc'. apply HS. right. exact Hc'.
Qed.

(** one step of the loop over a child that is left alone *)
Lemma merge_step f p l1 c r res s (Q : pres -> pstate -> Prop) :
  MWs f -> Rep (p_tree s) g pl -> p_handle s = h -> kids g p = l1 ++ c :: r -> S c -> fwalk g f c ->
  wp False (mergeScope_loop f (hd InvalidIndex r) res) s Q ->
  wp False (mergeScope_loop (Datatypes.S f) c res) s Q.
Proof.
  intros IHw H Hh Hk HS Hfc K. rewrite mergeScope_loop_S.
  assert (Hin : In c (kids g p)) by (rewrite Hk; apply in_or_app; right; left; reflexivity).
  destruct (rep_kid_pay _ _ _ _ _ H Hin) as (ac & Hac & Hlc).
  rewrite (rep_not_Inv _ _ _ _ _ H Hac).
  apply wp_bind. eapply wp_objectAt_rep; [exact H|exact Hac|exact Hlc|].
  apply wp_bind. eapply (wp_rdf_sib False p l1 c r); [exact H|exact Hk|]. intros o _ _ _ Hnext _. rewrite Hnext.
  apply wp_bind. eapply (wp_rdf_sib False p l1 c r); [exact H|exact Hk|]. intros o' Hidx _ _ _ _. rewrite Hidx.
  apply wp_bind. eapply wp_conseq; [apply (IHw c ac s H Hh HS Hac Hlc Hfc)|]. intros r0 s' (-> & ->).
  cbv iota. exact K.
Qed.

Lemma mergeS_all : forall f, MWs f /\ MLs f.
Proof.
  induction f as [|f (IHw & IHl)].
  - split; intro; intros; cbn in *; contradiction.
  - split; [apply mergeS_walk; exact IHl|apply mergeS_loop; assumption].
Qed.
End MergeS.

(** ---- free ---- *)
Lemma list_upd_id {A} (l : list A) n : list_upd l n (fun a => a) = l.
Proof. revert n. induction l as [|x l IH]; intros [|n]; cbn [list_upd]; try reflexivity. rewrite IH. reflexivity. Qed.


Lemma rep_free (t : T) g pl x a :
  Rep t g pl -> pget pl x = Some a -> y_op a <> opFreed -> kids g x = [] ->
  exists t' g', free t x = Ok t' /\ Rep t' g' (pupd pl x (ys_opcode opFreed)) /\
    length (g_kids g') = length (g_kids g) /\ g_free g' = x :: g_free g /\
    (forall p, kids g' p = remove1 x (kids g p)).
Proof.
  intros H Ha Hl Hk. pose proof (rep_R _ _ _ H) as HR.
  assert (Hlive : glive g x) by (eapply rep_live; eauto).
  destruct (free_R t g x HR (conj Hlive Hk)) as (t' & E & HR').
  exists t', (astep g (OpFree x)). split; [exact E|].
  destruct (rep_get _ _ _ H _ _ Ha) as (xo & Hxo & Epay).
  assert (Hlxo : o_opcode xo <> opFreed) by (rewrite (pay_op _ _ Epay); exact Hl).
  assert (Hkids : forall p, kids (astep g (OpFree x)) p = remove1 x (kids g p)).
  { intros p. cbn [astep]. rewrite (parent_of_spec _ _ _ _ HR Hxo Hlxo).
    destruct (N.eqb_spec (o_parent xo) InvalidIndex) as [Ep|Ep].
    - change (kids g p = remove1 x (kids g p)). symmetry. apply remove1_id.
      apply (proj2 (R_groot _ _ HR x xo Hxo Hlxo) Ep).
    - destruct (R_parent_live _ _ HR x xo Hxo Hlxo Ep) as (Hin & _).
      assert (Hplt : o_parent xo < N.of_nat (length (g_kids g))) by (eapply In_kids_lt; eauto).
      change (kids (set_kids g (o_parent xo) (remove1 x (kids g (o_parent xo)))) p = remove1 x (kids g p)).
      rewrite kids_set_kids by exact Hplt. destruct (N.eqb_spec p (o_parent xo)) as [->|Hne]; [reflexivity|].
      symmetry. apply remove1_id. intros Hi. apply Hne. eapply (R_parent_unique _ _ HR); eauto. }
  assert (Hlen : length (g_kids (astep g (OpFree x))) = length (g_kids g)).
  { cbn [astep]. destruct (parent_of g x); cbn [g_kids]; [apply set_kids_len|reflexivity]. }
  split; [|split; [exact Hlen|split; [reflexivity|exact Hkids]]].
  split; [exact HR'|].
  (* the payloads *)
  unfold free in E.
  apply bind_ok in E. destruct E as (par & _ & E).
  apply bind_ok in E. destruct E as (t1 & Ht1 & E).
  assert (F1 : map pay_of (t_pool t1) = pl).
  { destruct (negb (par =? InvalidIndex)).
    - apply bind_ok in Ht1. destruct Ht1 as (pp & _ & Hd). rewrite (pframe_pay _ _ (detach_pframe _ _ _ _ Hd)). apply (rep_pl _ _ _ H).
    - inversion Ht1; subst. apply (rep_pl _ _ _ H). }
  apply bind_ok in E. destruct E as (first & _ & E).
  apply bind_ok in E. destruct E as (lst & _ & E).
  destruct (negb (first =? InvalidIndex) || negb (lst =? InvalidIndex)); [discriminate|].
  apply bind_ok in E. destruct E as (t2 & Ht2 & E). destruct (wr_inv _ _ _ _ Ht2) as (-> & _).
  apply bind_ok in E. destruct E as (t3 & Ht3 & E). destruct (wr_inv _ _ _ _ Ht3) as (-> & _).
  apply bind_ok in E. destruct E as (oi & _ & E). inversion E; subst t'. clear E.
  cbn [t_pool]. unfold tset. cbn [t_pool]. unfold pupd.
  rewrite (map_list_upd pay_of _ (fun a => a)) by (intros o; reflexivity). rewrite list_upd_id.
  rewrite (map_list_upd pay_of (set_opcode opFreed) (ys_opcode opFreed)) by (intros o; reflexivity).
  rewrite F1. reflexivity.
Qed.

Lemma wp_free_rep P x a s g pl (Q : unit -> pstate -> Prop) :
  Rep (p_tree s) g pl -> pget pl x = Some a -> y_op a <> opFreed -> kids g x = [] ->
  (forall t' g', Rep t' g' (pupd pl x (ys_opcode opFreed)) ->
     length (g_kids g') = length (g_kids g) -> g_free g' = x :: g_free g ->
     (forall p, kids g' p = remove1 x (kids g p)) -> Q tt (with_tree s t')) ->
  wp P (freeM x) s Q.
Proof.
  intros H Ha Hl Hk K. destruct (rep_free _ _ _ _ _ H Ha Hl Hk) as (t' & g' & E & H' & A & B & C).
  unfold freeM. apply wp_tu. exists t'. split; [exact E|]. apply (K t' g'); assumption.
Qed.

(** ---- moveContents ---- *)
Lemma moveContents_go_S fuel' contentsObj targetObj siblingIndex : moveContents_go (S fuel') contentsObj targetObj siblingIndex =
  (if siblingIndex =? InvalidIndex then ret tt else
  mlet argObj <~ objectAt' siblingIndex ;;
  mlet nx <~ rdf argObj o_next ;;
  detachM (Some contentsObj) (Some argObj) ;;;
  appendM (Some targetObj) argObj ;;;
  moveContents_go fuel' contentsObj targetObj nx).
Proof. reflexivity. Qed.

Lemma desc_redirect' g g2 tg a : (forall v c, v <> tg -> In c (kids g2 v) -> In c (kids g v)) ->
  forall x, desc g2 a x -> desc g a x \/ desc g a tg.
Proof.
  intros Hsub x Hd. induction Hd as [|p c Hd IH Hin]; [left; constructor|].
  destruct IH as [IH|IH]; [|right; exact IH].
  destruct (N.eq_dec p tg) as [->|Hne]; [right; exact IH|]. left. eapply desc_step; [exact IH|apply Hsub; assumption].
Qed.

Lemma move_all : forall ms fuel src dst kd s g pl asrc adst (Q : unit -> pstate -> Prop),
  Rep (p_tree s) g pl -> kids g src = ms -> kids g dst = kd -> src <> dst ->
  pget pl src = Some asrc -> y_op asrc <> opFreed -> pget pl dst = Some adst -> y_op adst <> opFreed ->
  (forall m, In m ms -> ~ desc g m dst) -> (length ms < fuel)%nat ->
  (forall t' g', Rep t' g' pl -> length (g_kids g') = length (g_kids g) -> g_free g' = g_free g ->
     (forall y, kids g' y = if y =? dst then kd ++ ms else if y =? src then [] else kids g y) -> Q tt (with_tree s t')) ->
  wp False (moveContents_go fuel src dst (hd InvalidIndex ms)) s Q.
Proof.
  induction ms as [|m ms IH]; intros fuel src dst kd s g pl asrc adst Q H Hks Hkd Hne Hsrc Hlsrc Hdst Hldst Hnd Hf K.
  - destruct fuel as [|fuel]; [cbn in Hf; lia|]. rewrite moveContents_go_S. cbn [hd]. rewrite N.eqb_refl. apply wp_ret.
    assert (E : with_tree s (p_tree s) = s) by (destruct s; reflexivity). rewrite <- E. apply (K (p_tree s) g H eq_refl eq_refl).
    intros y. destruct (N.eqb_spec y dst) as [->|]; [rewrite app_nil_r; exact Hkd|]. destruct (N.eqb_spec y src) as [->|]; [exact Hks|reflexivity].
  - destruct fuel as [|fuel]; [cbn in Hf; lia|]. rewrite moveContents_go_S. cbn [hd].
    pose proof (rep_R _ _ _ H) as HR.
    assert (Hin : In m (kids g src)) by (rewrite Hks; left; reflexivity).
    destruct (rep_kid_pay _ _ _ _ _ H Hin) as (am & Ham & Hlm).
    rewrite (rep_not_Inv _ _ _ _ _ H Ham).
    apply wp_bind. eapply wp_objectAt_rep; [exact H|exact Ham|exact Hlm|].
    apply wp_bind. eapply (wp_rdf_sib False src [] m ms); [exact H|exact Hks|]. intros o _ _ _ Hnext _. rewrite Hnext.
    assert (Hlive_src : glive g src) by (eapply rep_live; eauto).
    assert (Hlive_dst : glive g dst) by (eapply rep_live; eauto).
    assert (Hlive_m : glive g m) by (eapply rep_live; eauto).
    assert (Hslt : src < N.of_nat (length (g_kids g))) by (apply glive_lt; exact Hlive_src).
    assert (Hdlt : dst < N.of_nat (length (g_kids g))) by (apply glive_lt; exact Hlive_dst).
    assert (Hnodup : NoDup (kids g src)).
    { destruct (rep_obj _ _ _ H _ _ Hsrc Hlsrc) as (so & Hso & Epay & _).
      assert (Hlso : o_opcode so <> opFreed) by (rewrite (pay_op _ _ Epay); exact Hlsrc).
      destruct (R_kids _ _ HR _ _ Hso Hlso) as (_ & _ & _ & Hndp). exact Hndp. }
    rewrite Hks in Hnodup. apply NoDup_cons_iff in Hnodup. destruct Hnodup as [Hmnot Hnd'].
    apply wp_bind. eapply wp_detach_rep; [exact H|exact Hin|]. intros t1 H1.
    rewrite Hks in H1. cbn [remove1] in H1. rewrite N.eqb_refl in H1.
    set (g1 := set_kids g src ms) in *.
    assert (Hk1 : forall q, kids g1 q = if q =? src then ms else kids g q) by (intros q; unfold g1; apply kids_set_kids; exact Hslt).
    assert (Hroot1 : groot g1 m).
    { intros q Hq. rewrite Hk1 in Hq. destruct (N.eqb_spec q src) as [E|E]; [contradiction|].
      apply E. eapply (R_parent_unique _ _ HR); eauto. }
    assert (Hsub1 : forall q c, In c (kids g1 q) -> In c (kids g q)).
    { intros q c. rewrite Hk1. destruct (N.eqb_spec q src) as [->|]; [rewrite Hks; intros Hi; right; exact Hi|auto]. }
    assert (Hnd1 : ~ desc g1 m dst).
    { intros Hd. apply (Hnd m (or_introl eq_refl)). eapply desc_mono; [exact Hsub1|exact Hd]. }
    apply wp_bind. eapply (wp_append_rep False dst m _ g1 pl); [exact H1|apply glive_set_kids; exact Hlive_dst|apply glive_set_kids; exact Hlive_m|exact Hroot1|exact Hnd1|].
    intros t2 H2. rewrite Hk1 in H2. apply N.eqb_neq in Hne. rewrite N.eqb_sym in Hne. rewrite Hne, Hkd in H2.
    set (g2 := set_kids g1 dst (kd ++ [m])) in *.
    assert (Hlen1 : length (g_kids g1) = length (g_kids g)) by (unfold g1; apply len_set_kids).
    assert (Hk2 : forall q, kids g2 q = if q =? dst then kd ++ [m] else if q =? src then ms else kids g q).
    { intros q. unfold g2. rewrite kids_set_kids by (rewrite Hlen1; exact Hdlt). rewrite Hk1. reflexivity. }
    apply N.eqb_neq in Hne.
    eapply (IH fuel src dst (kd ++ [m]) _ g2 pl asrc adst Q); [exact H2| | |congruence|exact Hsrc|exact Hlsrc|exact Hdst|exact Hldst| |cbn [length] in Hf; clear -Hf; lia|].
    + rewrite Hk2. destruct (N.eqb_spec src dst); [congruence|]. rewrite N.eqb_refl. reflexivity.
    + rewrite Hk2, N.eqb_refl. reflexivity.
    + intros m' Hm' Hd.
      destruct (desc_redirect' g g2 dst m') with (x := dst) as [Hd'|Hd']; [|exact Hd| |].
      * intros v c Hv Hc. rewrite Hk2 in Hc. apply N.eqb_neq in Hv. rewrite Hv in Hc.
        destruct (N.eqb_spec v src) as [->|]; [rewrite Hks; right; exact Hc|exact Hc].
      * apply (Hnd m' (or_intror Hm') Hd').
      * apply (Hnd m' (or_intror Hm') Hd').
    + intros t' g' H' Hl' Hf' Hk'. apply (K t' g' H').
      * rewrite Hl'. unfold g2. rewrite len_set_kids. exact Hlen1.
      * rewrite Hf'. reflexivity.
      * intros y. rewrite Hk', Hk2. destruct (N.eqb_spec y dst) as [->|]; [rewrite <- app_assoc; reflexivity|].
        destruct (N.eqb_spec y src); reflexivity.
Qed.

(** reading the whole object of a child *)
Lemma wp_rdo_kid P p l1 c l2 s g pl (Q : Obj -> pstate -> Prop) :
  Rep (p_tree s) g pl -> kids g p = l1 ++ c :: l2 ->
  (forall o, pget pl c = Some (pay_of o) -> o_parent o = p -> o_first o = hd InvalidIndex (kids g c) ->
             o_last o = last (kids g c) InvalidIndex -> Q o s) ->
  wp P (rdo c) s Q.
Proof.
  intros H Hk K. destruct (rep_sib _ _ _ H _ _ _ _ Hk) as (o & Ho & Hlo & _ & Hpar & _ & _).
  apply wp_rdo. exists o. split; [exact Ho|]. pose proof (rep_get_inv _ _ _ H _ _ Ho) as Hp.
  destruct (R_kids _ _ (rep_R _ _ _ H) _ _ Ho Hlo) as (Hf & Hla & _). apply K; auto.
Qed.

Lemma scope_info : opInfo 9 = Some (aml_pOpScope, 0, 67855). Proof. reflexivity. Qed.

Definition FR : pay -> pay := ys_opcode opFreed.

(** ---- one Scope directive below the root, over an existing ScopeBlock ---- *)
Lemma remove1_notin_id a (l : list N) : ~ In a l -> remove1 a l = l.
Proof. apply remove1_id. Qed.

Lemma merge_scope f h c p sb d ms kd l1 l2 bytes tbl sl s g pl a0 ac ap asb ad (Q : pres -> pstate -> Prop) :
  Rep (p_tree s) g pl -> p_handle s = h ->
  kids g 0 = l1 ++ c :: l2 -> kids g c = [p; sb] -> kids g p = [] -> kids g sb = ms -> kids g d = kd ->
  pget pl 0 = Some a0 -> y_op a0 <> opFreed ->
  pget pl c = Some ac -> y_op ac = aml_pOpScope -> y_info ac = 9 -> y_th ac = h ->
  pget pl p = Some ap -> y_op ap <> opFreed -> y_val ap = Some (VBytes tbl sl) -> slice_bytes s tbl sl = Ok bytes ->
  pget pl sb = Some asb -> y_op asb <> opFreed ->
  pget pl d = Some ad -> y_op ad = aml_pOpIntScopeBlock -> In d l1 ->
  c <> 0 -> d <> 0 -> p <> 0 -> sb <> 0 -> c <> d -> p <> c -> sb <> c -> p <> sb -> p <> d -> sb <> d ->
  Find (p_tree s) 0 bytes = Ok d ->
  (forall m, In m ms -> ~ desc g m d) ->
  (forall t' g', Rep t' g' (pupd (pupd (pupd pl p FR) sb FR) c FR) ->
     length (g_kids g') = length (g_kids g) -> g_free g' = c :: sb :: p :: g_free g ->
     (forall y, kids g' y = if y =? d then kd ++ ms else if y =? 0 then l1 ++ l2
                            else if (y =? c) || (y =? p) || (y =? sb) then [] else kids g y) ->
     wp False (mergeScope_loop f (hd InvalidIndex ms) ROk)
        (with_counters (with_tree s t') (p_resolvePasses s) (w32 (p_mergedScopes s + 1)) (p_relocatedObjects s)) Q) ->
  wp False (mergeScopeDirectives (S f) c) s Q.
Proof.
  intros H Hh Hk0 Hkc Hkp Hksb Hkd Hp0 Hl0 Hc Hopc Hinfc Hthc Hp Hlp Hvalp Hbytes Hsb Hlsb Hd Hopd Hdin
         N1 N2 N3 N4 N5 N6 N7 N8 N9 N10 HFind Hnd K.
  pose proof (rep_R _ _ _ H) as HR.
  assert (Hlc : y_op ac <> opFreed) by (rewrite Hopc; discriminate).
  assert (Hld : y_op ad <> opFreed) by (rewrite Hopd; discriminate).
  assert (Hin_c0 : In c (kids g 0)) by (rewrite Hk0; apply in_or_app; right; left; reflexivity).
  assert (Hin_pc : In p (kids g c)) by (rewrite Hkc; left; reflexivity).
  assert (Hin_sc : In sb (kids g c)) by (rewrite Hkc; right; left; reflexivity).
  assert (Hnd0 : NoDup (kids g 0)).
  { destruct (rep_obj _ _ _ H _ _ Hp0 Hl0) as (o0 & Ho0 & Ep0 & _).
    assert (Hlo0 : o_opcode o0 <> opFreed) by (rewrite (pay_op _ _ Ep0); exact Hl0).
    destruct (R_kids _ _ HR _ _ Ho0 Hlo0) as (_ & _ & _ & Hn). exact Hn. }
  assert (Hc_l : ~ In c (l1 ++ l2)) by (apply NoDup_mid_notin; rewrite <- Hk0; exact Hnd0).
  assert (Hpu : forall q q' y, In y (kids g q) -> In y (kids g q') -> q = q') by (intros q q' y A B; eapply (R_parent_unique _ _ HR); eauto).
  rewrite mergeScopeDirectives_S.
  apply wp_bind. eapply wp_objectAt_rep; [exact H|exact Hc|exact Hlc|].
  apply wp_bind. eapply wp_rdf_rep; [exact H|exact Hc|exact Hlc|]. intros o _ _ Hfirst _. rewrite Hfirst, Hkc. cbn [hd].
  apply wp_bind. assert (Ec0 : c =? 0 = false) by (apply N.eqb_neq; exact N1). rewrite Ec0. apply wp_ret.
  apply wp_bind. eapply (wp_rdo_kid False 0 l1 c l2); [exact H|exact Hk0|]. intros oo Hpayc Hparc Hfirstc Hlastc.
  rewrite Hc in Hpayc. inversion Hpayc as [Epc]. symmetry in Epc.
  rewrite (pay_info _ _ Epc), Hinfc. apply wp_bind. eapply wp_info; [exact scope_info|]. cbv beta iota.
  change (hasFlag 0 aml_pOpFlagExecutable) with false. cbv iota.
  apply wp_bind, wp_get. rewrite (pay_op _ _ Epc), Hopc, (pay_th _ _ Epc), Hthc, Hh, !N.eqb_refl. cbn [andb].
  rewrite Hfirstc, Hkc. cbn [hd]. rewrite (rep_not_Inv _ _ _ _ _ H Hp).
  apply wp_bind.
  apply wp_bind. eapply wp_objectAt_rep; [exact H|exact Hp|exact Hlp|].
  apply wp_bind. eapply wp_rdo_rep; [exact H|exact Hp|exact Hlp|]. intros nop Hpayp _ _ _. rewrite (pay_val _ _ Hpayp), Hvalp.
  apply wp_bind. eapply wp_bytesOf; [exact Hbytes|].
  apply wp_bind. eapply wp_tq; [rewrite Hparc; exact HFind|].
  rewrite (rep_not_Inv _ _ _ _ _ H Hd).
  (* scopeOf: the target is a ScopeBlock *)
  apply wp_bind. unfold scopeOf.
  apply wp_bind. eapply wp_objectAt_rep; [exact H|exact Hd|exact Hld|].
  apply wp_bind. eapply wp_rdf_rep; [exact H|exact Hd|exact Hld|]. intros od Hpayd _ _ _. rewrite (pay_op _ _ Hpayd), Hopd.
  change (aml_pOpIntScopeBlock =? aml_pOpIntScopeBlock) with true. cbv iota. apply wp_ret.
  (* the contents *)
  apply wp_bind. eapply wp_rdf_rep; [exact H|exact Hc|exact Hlc|]. intros o2 _ _ _ Hlast2. rewrite Hlast2, Hkc. cbn [last].
  apply wp_bind. eapply wp_objectAt_rep; [exact H|exact Hsb|exact Hlsb|].
  apply wp_bind. eapply wp_rdf_rep; [exact H|exact Hsb|exact Hlsb|]. intros osb _ _ Hfsb _. rewrite Hfsb, Hksb.
  unfold poolFuel. apply wp_bind, wp_get.
  apply wp_bind. eapply (move_all ms _ sb d kd s g pl asb ad); [exact H|exact Hksb|exact Hkd|exact N10|exact Hsb|exact Hlsb|exact Hd|exact Hld|exact Hnd| |].
  { pose proof (kids_length _ _ HR sb) as Hkl. rewrite Hksb in Hkl. clear -Hkl; lia. }
  intros t1 g1 H1 L1 F1 K1.
  (* free the name path *)
  assert (Hkp1 : kids g1 p = []).
  { rewrite K1. destruct (N.eqb_spec p d); [congruence|]. destruct (N.eqb_spec p sb); [congruence|exact Hkp]. }
  apply wp_bind. eapply (wp_free_rep False p ap _ g1 pl); [exact H1|exact Hp|exact Hlp|exact Hkp1|].
  intros t2 g2 H2 L2 F2 K2.
  (* free the ScopeBlock of the directive *)
  assert (Hsb2 : pget (pupd pl p FR) sb = Some asb).
  { rewrite pget_pupd. destruct (N.eqb_spec sb p); [congruence|exact Hsb]. }
  assert (Hksb2 : kids g2 sb = []).
  { rewrite K2, K1. destruct (N.eqb_spec sb d); [congruence|]. rewrite N.eqb_refl. reflexivity. }
  apply wp_bind. eapply (wp_free_rep False sb asb _ g2 (pupd pl p FR)); [exact H2|exact Hsb2|exact Hlsb|exact Hksb2|].
  intros t3 g3 H3 L3 F3 K3.
  (* free the directive *)
  assert (Hc3 : pget (pupd (pupd pl p FR) sb FR) c = Some ac).
  { rewrite !pget_pupd. destruct (N.eqb_spec c sb); [congruence|]. destruct (N.eqb_spec c p); [congruence|exact Hc]. }
  assert (Hkc3 : kids g3 c = []).
  { rewrite K3, K2, K1. destruct (N.eqb_spec c d); [congruence|]. destruct (N.eqb_spec c sb); [congruence|]. rewrite Hkc.
    cbn [remove1]. rewrite N.eqb_refl. cbn [remove1]. rewrite N.eqb_refl. reflexivity. }
  apply wp_bind. eapply (wp_free_rep False c ac _ g3 (pupd (pupd pl p FR) sb FR)); [exact H3|exact Hc3|exact Hlc|exact Hkc3|].
  intros t4 g4 H4 L4 F4 K4.
  apply wp_bind. unfold wp at 1. scbn. apply wp_ret. cbv iota.
  apply (K t4 g4 H4).
  - congruence.
  - rewrite F4, F3, F2, F1. reflexivity.
  - intros y. rewrite K4, K3, K2, K1.
    assert (Hms_par : forall m, In m ms -> forall q, In m (kids g q) -> q = sb) by (intros m Hm q Hq; apply (Hpu q sb m Hq); rewrite Hksb; exact Hm).
    assert (Hkd_par : forall m, In m kd -> forall q, In m (kids g q) -> q = d) by (intros m Hm q Hq; apply (Hpu q d m Hq); rewrite Hkd; exact Hm).
    assert (Hnot : forall z, In z (kids g c) \/ z = c -> ~ In z (kd ++ ms)).
    { intros z Hz Hi. apply in_app_or in Hi. destruct Hi as [Hi|Hi].
      - destruct Hz as [Hz| ->]; [pose proof (Hkd_par z Hi c Hz); congruence|pose proof (Hkd_par c Hi 0 Hin_c0); congruence].
      - destruct Hz as [Hz| ->]; [pose proof (Hms_par z Hi c Hz); congruence|pose proof (Hms_par c Hi 0 Hin_c0); congruence]. }
    destruct (N.eqb_spec y d) as [->|Hyd].
    + rewrite !remove1_notin_id; [reflexivity|apply Hnot; left; exact Hin_pc| |].
      * rewrite remove1_notin_id by (apply Hnot; left; exact Hin_pc). apply Hnot. left. exact Hin_sc.
      * rewrite !remove1_notin_id; [apply Hnot; right; reflexivity|apply Hnot; left; exact Hin_pc|].
        rewrite remove1_notin_id by (apply Hnot; left; exact Hin_pc). apply Hnot. left. exact Hin_sc.
    + destruct (N.eqb_spec y sb) as [->|Hys].
      * destruct (N.eqb_spec sb 0); [congruence|]. rewrite ?N.eqb_refl, ?orb_true_r. reflexivity.
      * destruct (N.eqb_spec y 0) as [->|Hy0].
        -- rewrite Hk0. rewrite (remove1_notin_id p) by (intros Hi; pose proof (Hpu 0 c p (eq_ind_r (fun l => In p l) Hi Hk0) Hin_pc); congruence).
           rewrite (remove1_notin_id sb) by (intros Hi; pose proof (Hpu 0 c sb (eq_ind_r (fun l => In sb l) Hi Hk0) Hin_sc); congruence).
           apply remove1_split. intros Hi. apply Hc_l. apply in_or_app. left. exact Hi.
        -- destruct (N.eqb_spec y c) as [->|Hyc].
           ++ cbn [orb]. rewrite Hkc. cbn [remove1]. rewrite N.eqb_refl. cbn [remove1]. rewrite N.eqb_refl. reflexivity.
           ++ destruct (N.eqb_spec y p) as [->|Hyp].
              ** cbn [orb]. rewrite Hkp. reflexivity.
              ** cbn [orb].
                 rewrite (remove1_notin_id p) by (intros Hi; pose proof (Hpu y c p Hi Hin_pc); congruence).
                 rewrite (remove1_notin_id sb) by (intros Hi; pose proof (Hpu y c sb Hi Hin_sc); congruence).
                 apply remove1_notin_id. intros Hi. pose proof (Hpu y 0 c Hi Hin_c0). congruence.
Qed.
