(** Every name-path object the first pass leaves in the pool carries a []byte that, when it is four bytes
    long, starts with a lead name character, a root character or a parent prefix (partial correctness, by structural
    decomposition with a small pre/post logic over the tree). *)
From Coq Require Import NArith Arith List Bool Lia.
From FF Require Import Lib.Word Gen.Consts_device_acpi_aml Aml.Stream Aml.Lex Aml.Tree Aml.Parser Aml.TreeSpec Aml.TreeProofs
  Aml.ParserTotalTree Aml.ParserTotalTree2 Aml.ParserTotalTable Aml.ParserTotalLex Aml.ParserTotalRuns Aml.ParserTotalBase Aml.ParserTotalLeaf Aml.ParserTotalFrame
  Aml.ParserTotalDeferM Aml.ParserTotalMerge Aml.ParserTotalBenign Aml.ParserTotalNameLex.
Import ListNotations.
Local Open Scope N_scope.

Definition goodv (tbls : list (list N)) (tbl : N) (sl : slice) : Prop :=
  forall s0 bytes, p_tables s0 = tbls -> slice_bytes s0 tbl sl = Ok bytes -> good_path bytes.
Definition GPt (tbls : list (list N)) (X : N -> Prop) (t : T) : Prop :=
  forall n no tbl sl, tget t n = Some no -> ~ X n -> o_opcode no = aml_pOpIntNamePath -> o_value no = Some (VBytes tbl sl) -> goodv tbls tbl sl.

Lemma take_bytes_length d : forall len start l, take_bytes d start len = Some l -> length l = len.
Proof.
  induction len as [|len IH]; intros start l H; cbn [take_bytes] in H.
  - inversion H; reflexivity.
  - destruct (nth_error d start); [|discriminate]. destruct (take_bytes d (S start) len) as [l'|] eqn:E; [|discriminate].
    inversion H; subst. cbn. f_equal. eapply IH; eauto.
Qed.
Lemma take_bytes_first d len start b l : take_bytes d start len = Some (b :: l) -> nth_error d start = Some b.
Proof.
  destruct len; cbn [take_bytes]; [discriminate|]. destruct (nth_error d start) as [b'|]; [|discriminate].
  destruct (take_bytes d (S start) len); [|discriminate]. intros H; inversion H; reflexivity.
Qed.

Lemma goodsl_goodv tbls tbl d sl : nth_error tbls (N.to_nat tbl) = Some d -> goodsl d sl -> goodv tbls tbl sl.
Proof.
  intros Hd Hg s0 bytes Ht H. unfold slice_bytes in H. destruct (s_len sl =? 0) eqn:E0; [inversion H; exact I|].
  destruct (s_ptr sl) as [p|] eqn:Ep; [|discriminate]. rewrite Ht, Hd in H.
  destruct (take_bytes d (N.to_nat p) (N.to_nat (s_len sl))) as [l|] eqn:Et; [|discriminate]. inversion H; subst bytes.
  pose proof (take_bytes_length _ _ _ _ Et) as Hl.
  destruct l as [|b0 [|b1 [|b2 [|b3 [|b4 l]]]]]; try exact I. cbn [length] in Hl.
  assert (E4 : s_len sl = 4) by lia. destruct (Hg E4) as (p' & b0' & Hp' & Hb & Hc).
  assert (p' = p) by congruence. subst p'. pose proof (take_bytes_first _ _ _ _ _ Et) as Hn.
  unfold byte_at, nthN in Hb. assert (b0' = b0) by congruence. subst b0'. exact Hc.
Qed.

Lemma goodv_nil tbls tbl : goodv tbls tbl nil_slice.
Proof. intros s0 bytes _ H. unfold slice_bytes in H. cbn in H. inversion H; exact I. Qed.

Create HintDb wk discriminated.

Section GP.
Variable tbls : list (list N).
Variable d : list N.
(** the slots the invariant does not speak about (the objects that were live before the first pass) *)
Variable X : N -> Prop.
Let cur : N := N.of_nat (length tbls) - 1.
Hypothesis Hd : nth_error tbls (N.to_nat cur) = Some d.

(** what the lexer guarantees about the []byte it returns *)
Definition GVs (v : slice) : Prop := forall tbl sl, bytesValue cur v = VBytes tbl sl -> goodv tbls tbl sl.

Lemma goodsl_GVs v : goodsl d v -> GVs v.
Proof.
  intros Hg tbl sl E. unfold bytesValue in E. destruct (s_ptr v); inversion E; subst.
  - eapply goodsl_goodv; eauto.
  - apply goodv_nil.
Qed.

Definition W (s : pstate) : Prop := p_tables s = tbls /\ r_data (p_r s) = d /\ rok (p_r s).
Definition G (s : pstate) : Prop := W s /\ GPt tbls X (p_tree s).

Definition gk {A} (P : T -> Prop) (m : M A) (Q : A -> T -> Prop) : Prop :=
  forall s a s', G s -> P (p_tree s) -> m s = Ok (a, s') -> G s' /\ Q a (p_tree s').
Definition TT : T -> Prop := fun _ => True.
Definition gpk {A} (m : M A) : Prop := gk TT m (fun _ => TT).
Definition wk {A} (m : M A) : Prop := forall s a s', W s -> m s = Ok (a, s') -> W s'.

Lemma gk_bind {A B} P (m : M A) Q (f : A -> M B) R : gk P m Q -> (forall a, gk (Q a) (f a) R) -> gk P (bindM m f) R.
Proof. intros Hm Hf s b s' Hg Hp H. apply bindM_ok in H. destruct H as (a & s1 & E1 & E2). destruct (Hm _ _ _ Hg Hp E1) as (G1 & Q1). exact (Hf a _ _ _ G1 Q1 E2). Qed.
Lemma gk_conseq {A} (P P' : T -> Prop) (m : M A) (Q Q' : A -> T -> Prop) :
  (forall t, P' t -> P t) -> (forall a t, Q a t -> Q' a t) -> gk P m Q -> gk P' m Q'.
Proof. intros H1 H2 Hm s a s' Hg Hp H. destruct (Hm _ _ _ Hg (H1 _ Hp) H) as (G1 & Q1). split; [exact G1|exact (H2 _ _ Q1)]. Qed.
Lemma gk_weak {A} P (m : M A) : gpk m -> gk P m (fun _ => TT).
Proof. apply gk_conseq; intros; exact I. Qed.
Lemma gpk_bind {A B} (m : M A) (f : A -> M B) : gpk m -> (forall a, gpk (f a)) -> gpk (bindM m f).
Proof. intros Hm Hf. eapply gk_bind; [exact Hm|exact Hf]. Qed.
Lemma gk_if {A} P (b : bool) (m1 m2 : M A) Q : (b = true -> gk P m1 Q) -> (b = false -> gk P m2 Q) -> gk P (if b then m1 else m2) Q.
Proof. destruct b; auto. Qed.
Lemma gk_fail {A} P (m : M A) Q : (forall s, m s = Panic \/ m s = OutOfFuel) -> gk P m Q.
Proof. intros H s a s' _ _ E. destruct (H s) as [F|F]; rewrite F in E; discriminate. Qed.
Lemma gk_pure {A} P (m : M A) : wk m -> notree m -> gk P m (fun _ => P).
Proof.
  intros Hw Hn s a s' (Hw0 & Hg) Hp E. unfold G. rewrite (Hn _ _ _ E). split; [split; [exact (Hw _ _ _ Hw0 E)|exact Hg]|exact Hp].
Qed.
Lemma gpk_pure {A} (m : M A) : wk m -> notree m -> gpk m.
Proof. intros Hw Hn. apply (gk_pure TT m Hw Hn). Qed.

(** ---- W is kept ---- *)
Lemma wk_same {A} (m : M A) : (forall s a s', m s = Ok (a, s') -> p_tables s' = p_tables s /\ p_r s' = p_r s) -> wk m.
Proof. intros H s a s' (W1 & W2 & W3) E. destruct (H _ _ _ E) as (E1 & E2). unfold W. rewrite E1, E2. auto. Qed.
Lemma wk_ret {A} (a : A) : wk (ret a).
Proof. apply wk_same. intros s a' s' H. inversion H; auto. Qed.
Lemma wk_get {A} (f : pstate -> A) : wk (Parser.get f).
Proof. apply wk_same. intros s a' s' H. inversion H; auto. Qed.
Lemma wk_panic {A} : wk (@panic A).
Proof. intros s a s' _ H. discriminate. Qed.
Lemma wk_outOfFuel {A} : wk (@outOfFuel A).
Proof. intros s a s' _ H. discriminate. Qed.
Lemma wk_liftf {A} (f : pstate -> outcome A) : wk (fun s => lift (f s) s).
Proof. apply wk_same. intros s a s' H. unfold lift in H. destruct (f s); try discriminate. inversion H; auto. Qed.
Lemma wk_lift {A} (o : outcome A) : wk (lift o).
Proof. apply wk_same. intros s a s' H. unfold lift in H. destruct o; try discriminate. inversion H; auto. Qed.
Lemma wk_tq {A} (f : T -> outcome A) : wk (tq f).
Proof. unfold tq. apply wk_liftf. Qed.
Lemma wk_need o : wk (need o).
Proof. destruct o; [apply wk_ret|apply wk_panic]. Qed.
Lemma wk_info i : wk (info i).
Proof. unfold info. destruct (opInfo i); [apply wk_ret|apply wk_panic]. Qed.
Lemma wk_tableIndex op b : wk (tableIndex op b).
Proof. unfold tableIndex. destruct (opcodeTableIndex op b); [apply wk_ret|apply wk_panic]. Qed.
Lemma wk_tu f : wk (tu f).
Proof. apply wk_same. intros s a s' H. unfold tu in H. destruct (f (p_tree s)); try discriminate. inversion H; auto. Qed.
Lemma wk_newObj op : wk (newObj op).
Proof. apply wk_same. intros s a s' H. unfold newObj in H. destruct (newObject (p_tree s) op (p_handle s)) as [[? ?]| |]; try discriminate. inversion H; auto. Qed.
Lemma wk_scopeEnter i : wk (scopeEnter i).
Proof. apply wk_same. intros s a s' H. inversion H; auto. Qed.
Lemma wk_scopeExit : wk scopeExit.
Proof. apply wk_same. intros s a s' H. unfold scopeExit in H. destruct (p_scopeStack s); try discriminate. inversion H; auto. Qed.
Lemma wk_upd (f : pstate -> pstate) : (forall s, p_tables (f s) = p_tables s /\ p_r (f s) = p_r s) -> wk (fun s => Ok (tt, f s)).
Proof. intros Hf. apply wk_same. intros s a s' H. inversion H; subst. apply Hf. Qed.

Definition rkd (r r' : reader) : Prop := rok r' /\ r_data r' = r_data r.
Lemma wk_reader {A} (m : M A) :
  (forall s a s', rok (p_r s) -> m s = Ok (a, s') -> p_tables s' = p_tables s /\ rkd (p_r s) (p_r s')) -> wk m.
Proof. intros H s a s' (W1 & W2 & W3) E. destruct (H _ _ _ W3 E) as (E1 & R1 & R2). unfold W. rewrite E1, R2. auto. Qed.
Definition lexok {A} (f : reader -> outcome (A * bool * reader)) : Prop :=
  forall r v ok r1, rok r -> f r = Ok (v, ok, r1) -> rkd r r1.
Lemma wk_lex {A} (f : reader -> outcome (A * bool * reader)) : lexok f -> wk (lex f).
Proof.
  intros Hf. apply wk_reader. intros s a s' Hr H. unfold lex in H. destruct (f (p_r s)) as [[[v ok] r1]| |] eqn:E; try discriminate.
  inversion H; subst. split; [reflexivity|exact (Hf _ _ _ _ Hr E)].
Qed.
Lemma adv_rkd r r1 : rok r -> adv r r1 -> rkd r r1.
Proof. intros H A. split; [eapply rok_adv; eauto|apply adv_data; exact A]. Qed.
Lemma lexok_pkg : lexok parsePkgLength.
Proof. intros r v ok r1 H E. destruct (parsePkgLength_off r H) as (v' & ok' & r1' & E' & A & _). rewrite E in E'. inversion E'; subst. apply adv_rkd; auto. Qed.
Lemma lexok_num k : lexok (parseNumConstant k).
Proof. intros r v ok r1 H E. destruct (parseNumConstant_off k r H) as (v' & ok' & r1' & E' & A & _). rewrite E in E'. inversion E'; subst. apply adv_rkd; auto. Qed.
Lemma lexok_string : lexok parseString.
Proof. intros r v ok r1 H E. destruct (parseString_off r H) as (v' & ok' & r1' & E' & A & _). rewrite E in E'. inversion E'; subst. apply adv_rkd; auto. Qed.
Lemma lexok_name : lexok parseNameString.
Proof. intros r v ok r1 H E. destruct (parseNameString_off r H) as (v' & ok' & r1' & E' & A & _). rewrite E in E'. inversion E'; subst. apply adv_rkd; auto. Qed.
Lemma lexok_next : lexok nextOpcode.
Proof. intros r v ok r1 H E. destruct (nextOpcode_off r H) as (v' & ok' & r1' & E' & A & _). rewrite E in E'. inversion E'; subst. apply adv_rkd; auto. Qed.
Lemma setOffset_data r o : r_data (setOffset r o) = r_data r.
Proof. unfold setOffset. destruct (r_len r <? o); reflexivity. Qed.
Lemma lexok_peek : lexok peekNextOpcode.
Proof.
  intros r v ok r1 H E. unfold peekNextOpcode in E. destruct (nextOpcode r) as [[[op1 ok1] r2]| |] eqn:E1; cbn [bind] in E; try discriminate.
  inversion E; subst. destruct (lexok_next _ _ _ _ H E1) as (R1 & R2). split; [apply rok_setOffset; exact R1|rewrite setOffset_data; exact R2].
Qed.
Lemma wk_ru g : (forall r, rok r -> rkd r (g r)) -> wk (ru g).
Proof. intros Hg. apply wk_reader. intros s a s' Hr H. inversion H; subst. split; [reflexivity|apply Hg; exact Hr]. Qed.
Lemma rkd_setOffset o r : rok r -> rkd r (setOffset r o).
Proof. intros H. split; [apply rok_setOffset; exact H|apply setOffset_data]. Qed.
Lemma rkd_unread r : rok r -> rkd r (fst (unreadByte r)).
Proof.
  intros H. unfold unreadByte. destruct (r_offset r =? 0) eqn:E; cbn [fst]; [split; [exact H|reflexivity]|].
  split; [|reflexivity]. destruct H as ((W1 & W2 & W3 & W4) & S & O). apply N.eqb_neq in E.
  split; [repeat split; auto|]. split; [exact S|]. cbn. lia.
Qed.
Lemma setPkgEnd_data r e : r_data (fst (setPkgEnd r e)) = r_data r.
Proof. unfold setPkgEnd. destruct (r_len r <? e); reflexivity. Qed.
Lemma wk_setPkgEndM e : wk (setPkgEndM e).
Proof.
  apply wk_reader. intros s a s' Hr H. unfold setPkgEndM in H. destruct (setPkgEnd (p_r s) e) as [r ok] eqn:E. inversion H; subst.
  split; [reflexivity|]. replace r with (fst (setPkgEnd (p_r s) e)) by (rewrite E; reflexivity). split; [apply rok_setPkgEnd; exact Hr|apply setPkgEnd_data].
Qed.
Lemma wk_readByteM : wk readByteM.
Proof.
  apply wk_reader. intros s a s' Hr H. unfold readByteM in H. destruct (readByte (p_r s)) as [[b r1]| |] eqn:E; try discriminate. inversion H; subst.
  split; [reflexivity|]. destruct (rd1 _ Hr) as [(R & _)|(b' & R & _ & _ & A)]; rewrite R in E; inversion E; subst.
  - split; [exact Hr|reflexivity].
  - apply adv_rkd; auto.
Qed.
Lemma wk_popPkgEnd : wk popPkgEnd.
Proof.
  apply wk_reader. intros s a s' Hr H. unfold popPkgEnd in H.
  destruct (match p_pkgEndStack s with [] => [] | _ :: rest => rest end) as [|top rest]; inversion H; subst; cbn.
  - split; [reflexivity|split; [exact Hr|reflexivity]].
  - split; [reflexivity|split; [apply rok_setPkgEnd; exact Hr|apply setPkgEnd_data]].
Qed.

#[local] Hint Resolve wk_ret wk_get wk_tq wk_lift wk_liftf wk_need wk_info wk_tableIndex wk_panic wk_outOfFuel wk_scopeEnter wk_scopeExit
  wk_popPkgEnd wk_setPkgEndM wk_readByteM wk_lex wk_ru lexok_pkg lexok_num lexok_string lexok_name lexok_next lexok_peek
  rkd_unread rkd_setOffset : wk.

Ltac wk_prim := first [ solve [auto 3 with wk nocore] | (apply wk_upd; intros; split; reflexivity) ].

(** ---- the tree primitives ---- *)
Definition has (p : N) (F : Obj -> Prop) : T -> Prop := fun t => forall o, tget t p = Some o -> F o.

Lemma gk_wrf p f (F F' : Obj -> Prop) :
  (forall o, F o -> F' (f o)) ->
  (forall o tbl sl, F o -> o_opcode (f o) = aml_pOpIntNamePath -> o_value (f o) = Some (VBytes tbl sl) ->
     (o_opcode o = aml_pOpIntNamePath /\ o_value o = Some (VBytes tbl sl)) \/ goodv tbls tbl sl) ->
  gk (has p F) (wrf p f) (fun _ => has p F').
Proof.
  intros H1 H2 s u s' (Hw & Hg) Hp H. pose proof (wk_tu _ _ _ _ Hw H) as Hw'.
  unfold wrf, tu in H. destruct (wr (p_tree s) p f) as [t'| |] eqn:E; try discriminate.
  inversion H; subst. destruct (wr_inv _ _ _ _ E) as (-> & o0 & Ho0). unfold G. cbn [p_tree with_tree].
  split; [split; [exact Hw'|]|].
  - intros n no tbl sl Hn HX Hop Hv. rewrite get_tset in Hn. destruct (N.eqb_spec n p) as [->|_]; [|exact (Hg _ _ _ _ Hn HX Hop Hv)].
    rewrite Ho0 in Hn. cbn [option_map] in Hn. inversion Hn; subst no.
    destruct (H2 o0 tbl sl (Hp _ Ho0) Hop Hv) as [(A & B)|A]; [exact (Hg _ _ _ _ Ho0 HX A B)|exact A].
  - intros o Ho. rewrite get_tset, N.eqb_refl, Ho0 in Ho. cbn [option_map] in Ho. inversion Ho; subst o. apply H1. apply Hp. exact Ho0.
Qed.

Lemma gpk_wrf p f :
  (forall o tbl sl, o_opcode (f o) = aml_pOpIntNamePath -> o_value (f o) = Some (VBytes tbl sl) ->
     (o_opcode o = aml_pOpIntNamePath /\ o_value o = Some (VBytes tbl sl)) \/ goodv tbls tbl sl) ->
  gpk (wrf p f).
Proof.
  intros H. eapply gk_conseq; [| |apply (gk_wrf p f (fun _ => True) (fun _ => True)); [auto|intros o tbl sl _; apply H]].
  - intros t _ o _. exact I.
  - intros; exact I.
Qed.

Lemma gk_newObj opc : gk TT (newObj opc) (fun p => has p (fun o => o_value o = None /\ o_opcode o = opc)).
Proof.
  intros s a s' (Hw & Hg) _ H. pose proof (wk_newObj _ _ _ _ Hw H) as Hw'.
  unfold newObj in H. destruct (newObject (p_tree s) opc (p_handle s)) as [[t' p]| |] eqn:E; try discriminate.
  inversion H; subst a s'. unfold G. cbn [p_tree with_tree]. destruct (newObject_init _ _ _ _ _ E) as (o & info & Hq).
  destruct (newObject_shape _ _ _ _ _ E) as (_ & _ & Hbw & _).
  split; [split; [exact Hw'|]|].
  - intros n no tbl sl Hn HX Hop Hv. destruct (N.eq_dec n p) as [->|Hne]; [rewrite Hq in Hn; inversion Hn; subst no; discriminate|].
    exact (Hg _ _ _ _ (Hbw n no Hne Hn) HX Hop Hv).
  - intros o' Ho'. rewrite Hq in Ho'. inversion Ho'; subst o'. split; reflexivity.
Qed.
Lemma gpk_newObj opc : gpk (newObj opc).
Proof. eapply gk_conseq; [| |apply gk_newObj]; intros; exact I. Qed.

Lemma gpk_tu_pframe (f : T -> outcome T) : (forall t t', f t = Ok t' -> pframe t t') -> gpk (tu f).
Proof.
  intros Hf s a s' (Hw & Hg) _ H. pose proof (wk_tu _ _ _ _ Hw H) as Hw'.
  unfold tu in H. destruct (f (p_tree s)) as [t'| |] eqn:E; try discriminate. inversion H; subst. unfold G. cbn [p_tree with_tree].
  split; [split; [exact Hw'|]|exact I].
  intros n no tbl sl Hn HX Hop Hv. destruct (pframe_inv _ _ _ _ (Hf _ _ E) Hn) as (o0 & Ho0 & E1 & _ & _ & _ & _ & _ & _ & E8).
  apply (Hg n o0 tbl sl Ho0 HX); congruence.
Qed.

Lemma gk_curTable {B} P (k : N -> M B) Q : gk P (k cur) Q -> gk P (bindM curTable k) Q.
Proof.
  intros Hk s b s' Hg Hp H. unfold bindM, curTable, Parser.get in H. destruct Hg as ((W1 & W2 & W3) & Hg).
  rewrite W1 in H. exact (Hk _ _ _ (conj (conj W1 (conj W2 W3)) Hg) Hp H).
Qed.

Lemma gk_lex_name {B} P (k : slice * bool -> M B) Q :
  (forall v ok, GVs v -> gk P (k (v, ok)) Q) -> gk P (bindM (lex parseNameString) k) Q.
Proof.
  intros Hk s b s' Hg Hp H. apply bindM_ok in H. destruct H as ([v ok] & s1 & E1 & E2).
  destruct Hg as (Hw & Hg). pose proof (wk_lex _ lexok_name _ _ _ Hw E1) as Hw1. pose proof (proj1 (inert_lex _ _ _ _ E1)) as Ht.
  assert (Hv : GVs v).
  { unfold lex in E1. destruct (parseNameString (p_r s)) as [[[v' ok'] r1]| |] eqn:E; try discriminate. inversion E1; subst.
    destruct Hw as (_ & W2 & W3). apply goodsl_GVs. rewrite <- W2. exact (parseNameString_good _ _ _ _ W3 E). }
  apply (Hk v ok Hv s1 b s'); [split; [exact Hw1|rewrite Ht; exact Hg]|rewrite Ht; exact Hp|exact E2].
Qed.

Lemma gk_rdf_opcode {B} p (k : N -> M B) Q :
  (forall op, gk (has p (fun o => o_opcode o = op)) (k op) Q) -> gk TT (bindM (rdf p o_opcode) k) Q.
Proof.
  intros Hk s b s' Hg _ H. unfold bindM, rdf, tq, lift in H. destruct (rd (p_tree s) p o_opcode) as [op| |] eqn:E; try discriminate.
  apply (Hk op s b s' Hg); [|exact H]. intros o Ho. destruct (rd_inv _ _ _ _ E) as (o' & Ho' & ->). congruence.
Qed.

Lemma gk_wrf0 p f (F' : Obj -> Prop) :
  (forall o, F' (f o)) ->
  (forall o tbl sl, o_opcode (f o) = aml_pOpIntNamePath -> o_value (f o) = Some (VBytes tbl sl) ->
     (o_opcode o = aml_pOpIntNamePath /\ o_value o = Some (VBytes tbl sl)) \/ goodv tbls tbl sl) ->
  gk TT (wrf p f) (fun _ => has p F').
Proof.
  intros H1 H2. eapply gk_conseq; [| |apply (gk_wrf p f (fun _ => True) F'); [intros o _; apply H1|intros o tbl sl _; apply H2]].
  - intros t _ o _. exact I.
  - intros a t H. exact H.
Qed.
Lemma gk_bind_weak {A B} P (m : M A) (f : A -> M B) : gk P m (fun _ => TT) -> (forall a, gpk (f a)) -> gk P (bindM m f) (fun _ => TT).
Proof. intros Hm Hf. eapply gk_bind; [exact Hm|exact Hf]. Qed.
Lemma gpk_curTable {B} (k : N -> M B) : gpk (k cur) -> gpk (bindM curTable k).
Proof. apply gk_curTable. Qed.
Lemma gpk_lex_name {B} (k : slice * bool -> M B) : (forall v ok, GVs v -> gpk (k (v, ok))) -> gpk (bindM (lex parseNameString) k).
Proof. apply gk_lex_name. Qed.
Lemma gpk_if {A} (b : bool) (m1 m2 : M A) : gpk m1 -> gpk m2 -> gpk (if b then m1 else m2).
Proof. destruct b; auto. Qed.
Lemma gpk_fail {A} (m : M A) : (forall s, m s = Panic \/ m s = OutOfFuel) -> gpk m.
Proof. apply gk_fail. Qed.

(** ---- automation ---- *)
Ltac gp_side :=
  let o := fresh "o" in let tbl := fresh "tbl" in let sl := fresh "sl" in let H1 := fresh "H1" in let H2 := fresh "H2" in
  intros o tbl sl H1 H2;
  cbn [o_opcode o_value set_opcode set_name set_amlOffset set_pkgEnd set_value set_infoIndex] in H1, H2;
  first [ (left; split; assumption) | discriminate
        | (right; match goal with HG : GVs _ |- _ => apply HG; congruence end) ].

Ltac gpk_prim :=
  lazymatch goal with
  | |- gpk (wrf _ _) => apply gpk_wrf; gp_side
  | |- gpk (newObj _) => apply gpk_newObj
  | |- gpk (tu (fun t => append t _ _)) => apply gpk_tu_pframe; intros ? ?; apply append_pframe
  | |- gpk (tu (fun t => appendAfter t _ _ _)) => apply gpk_tu_pframe; intros ? ?; apply appendAfter_pframe
  | |- gpk (tu (fun t => detach t _ _)) => apply gpk_tu_pframe; intros ? ?; apply detach_pframe
  | |- _ => apply gpk_pure; [wk_prim|notree_prim2]
  end.

Ltac gp_unf :=
  unfold offsetM, eofM, objectAt', appendM, detachM, setOffsetM, pushPkgEnd, bytesOf, scopeCurrent, methodArgCountPanic, streamFuel, fieldByte;
  unfold rq, rdf, rdo, objectAt.

Ltac gpk_tac rec :=
  repeat lazymatch goal with
  | |- gpk (bindM curTable _) => apply gpk_curTable
  | |- gpk (bindM (lex parseNameString) _) => apply gpk_lex_name; intros ? ? ?; cbv beta iota
  | |- gpk (bindM _ _) => apply gpk_bind; [|intros ?]
  | |- gpk (match ?x with _ => _ end) => first [apply gpk_if | destruct x]
  | |- gpk _ => first [rec | gpk_prim]
  end.

Ltac carry := eapply gk_bind; [apply gk_pure; [wk_prim|notree_prim2]|intros ?; cbv beta].

(** ---- the leaves ---- *)
Lemma parseByteList_gpk obj n : gpk (parseByteList obj n).
Proof.
  unfold parseByteList. gp_unf. apply gpk_bind; [gpk_prim|intros r]. apply gpk_if; [gpk_prim|].
  eapply gk_bind; [apply (gk_wrf0 obj _ (fun o => o_opcode o = aml_pOpIntByteList)); [intros o; reflexivity|gp_side]|intros ?; cbv beta].
  carry.
  eapply gk_bind; [apply (gk_wrf obj _ _ (fun o => o_opcode o = aml_pOpIntByteList)); [intros o Ho; exact Ho|gp_side]|intros ?; cbv beta].
  carry. apply gk_curTable.
  eapply gk_bind_weak; [|intros _; gpk_tac fail].
  eapply gk_conseq; [intros t Ht; exact Ht|intros; exact I|].
  apply (gk_wrf obj _ (fun o => o_opcode o = aml_pOpIntByteList) (fun _ => True)); [auto|].
  intros o tbl sl Ho H1 H2. cbn [o_opcode set_value] in H1. rewrite Ho in H1. discriminate.
Qed.

Lemma parseSimpleArg_gpk ty : gpk (parseSimpleArg ty).
Proof.
  unfold parseSimpleArg. gp_unf.
  eapply gk_bind; [apply gk_newObj|intros obj]. carry.
  eapply gk_bind; [apply (gk_wrf obj _ _ (fun o => o_value o = None)); [intros o (Ho & _); exact Ho|gp_side]|intros ?; cbv beta].
  apply gk_curTable. cbv zeta.
  apply gk_if; intros _; [apply gk_weak; gpk_tac fail|].
  apply gk_if; intros _; [apply gk_weak; gpk_tac fail|].
  apply gk_if; intros _; [apply gk_weak; gpk_tac fail|].
  apply gk_if; intros _; [apply gk_weak; gpk_tac fail|].
  apply gk_if; intros _.
  { eapply gk_bind; [apply (gk_wrf obj _ _ (fun o => o_opcode o = aml_pOpStringPrefix)); [intros o _; reflexivity|gp_side]|intros ?; cbv beta].
    carry. match goal with |- gk _ (let '(_, _) := ?x in _) _ => destruct x as [v ok] end.
    eapply gk_bind_weak; [|intros _; gpk_tac fail].
    eapply gk_conseq; [intros t Ht; exact Ht|intros; exact I|].
    apply (gk_wrf obj _ (fun o => o_opcode o = aml_pOpStringPrefix) (fun _ => True)); [auto|].
    intros o tbl sl Ho H1 H2. cbn [o_opcode set_value] in H1. rewrite Ho in H1. discriminate. }
  apply gk_if; intros _; [|apply gk_weak; gpk_tac fail].
  eapply gk_bind_weak; [|intros _; gpk_tac fail].
  eapply gk_conseq; [intros t Ht; exact Ht|intros; exact I|].
  apply (gk_wrf obj _ (fun o => o_value o = None) (fun _ => True)); [auto|].
  intros o tbl sl Ho H1 H2. cbn [o_value set_opcode] in H2. rewrite Ho in H2. discriminate.
Qed.

Lemma readName_go_gpk field cnt : forall i, gpk (readName_go cnt i field).
Proof. induction cnt as [|cnt IH]; intros i; cbn [readName_go]; gp_unf; gpk_tac ltac:(apply IH). Qed.
Lemma fieldElements_go_gpk fuel : forall curObj f, gpk (fieldElements_go fuel curObj f).
Proof.
  induction fuel as [|fuel IH]; intros curObj f; cbn [fieldElements_go]; [apply gpk_fail; intros; right; reflexivity|].
  gp_unf. gpk_tac ltac:(idtac; lazymatch goal with
                         | |- gpk (fieldElements_go _ _ _) => apply IH
                         | |- gpk (readName_go _ _ _) => apply readName_go_gpk
                         | |- gpk (parseByteList _ _) => apply parseByteList_gpk
                         end).
Qed.
Lemma parseFieldElements_gpk curObj : gpk (parseFieldElements curObj).
Proof. unfold parseFieldElements. gp_unf. gpk_tac ltac:(apply fieldElements_go_gpk). Qed.

(** ---- the nine mutually recursive functions ---- *)
Definition gblock (fuel : nat) : Prop :=
  gpk (parseNextObject fuel) /\ (forall c, gpk (parseObjectArgs fuel c)) /\
  (forall inf c i, gpk (parseArgs fuel inf c i)) /\ (forall inf c ty, gpk (parseArg fuel inf c ty)) /\
  gpk (termList_go fuel) /\ gpk (parseNamePathOrMethodCall fuel) /\ (forall n, gpk (callArgs_go fuel n)) /\
  (forall c, gpk (parseStrictTermArg fuel c)) /\ gpk (parseTarget fuel).

Ltac gp_rec H1 H2 H3 H4 H5 H6 H7 H8 H9 :=
  idtac; lazymatch goal with
  | |- gpk ?m => block_call m H1 H2 H3 H4 H5 H6 H7 H8 H9 parseSimpleArg_gpk parseByteList_gpk parseFieldElements_gpk
  end.

Lemma gblock_all : forall fuel, gblock fuel.
Proof.
  induction fuel as [|fuel (H1 & H2 & H3 & H4 & H5 & H6 & H7 & H8 & H9)].
  - unfold gblock. repeat match goal with |- _ /\ _ => split end; intros; cbn; apply gpk_fail; intros; right; reflexivity.
  - unfold gblock. repeat match goal with |- _ /\ _ => split end; intros.
    + cbn [parseNextObject]. gp_unf. gpk_tac ltac:(gp_rec H1 H2 H3 H4 H5 H6 H7 H8 H9).
    + cbn [parseObjectArgs]. apply gk_rdf_opcode. intros op. apply gk_curTable.
      eapply gk_bind_weak; [|intros res; gpk_tac fail].
      apply gk_if; intros _; [apply gk_weak; gpk_tac fail|].
      apply gk_if; intros _; [apply gk_weak; gpk_tac fail|].
      apply gk_if; intros _; [apply gk_weak; gpk_tac fail|].
      apply gk_if; intros _; [apply gk_weak; gpk_tac fail|].
      apply gk_if; intros E5.
      { apply N.eqb_eq in E5. subst op. carry. match goal with |- gk _ (let '(_, _) := ?x in _) _ => destruct x as [v ok] end.
        eapply gk_bind_weak; [|intros ?; gpk_tac fail].
        eapply gk_conseq; [intros t Ht; exact Ht|intros; exact I|].
        apply (gk_wrf c _ (fun o => o_opcode o = aml_pOpStringPrefix) (fun _ => True)); [auto|].
        intros o tbl sl Ho G1 G2. cbn [o_opcode set_value] in G1. rewrite Ho in G1. discriminate. }
      apply gk_weak. gp_unf. gpk_tac ltac:(gp_rec H1 H2 H3 H4 H5 H6 H7 H8 H9).
    + cbn [parseArgs]. destruct inf as [[? ?] ?]. gp_unf. gpk_tac ltac:(gp_rec H1 H2 H3 H4 H5 H6 H7 H8 H9).
    + cbn [parseArg]. destruct inf as [[? ?] ?]. gp_unf. gpk_tac ltac:(gp_rec H1 H2 H3 H4 H5 H6 H7 H8 H9).
    + cbn [termList_go]. gp_unf. gpk_tac ltac:(gp_rec H1 H2 H3 H4 H5 H6 H7 H8 H9).
    + cbn [parseNamePathOrMethodCall]. gp_unf. gpk_tac ltac:(gp_rec H1 H2 H3 H4 H5 H6 H7 H8 H9).
    + cbn [callArgs_go]. gp_unf. gpk_tac ltac:(gp_rec H1 H2 H3 H4 H5 H6 H7 H8 H9).
    + cbn [parseStrictTermArg]. gp_unf. gpk_tac ltac:(gp_rec H1 H2 H3 H4 H5 H6 H7 H8 H9).
    + cbn [parseTarget]. gp_unf. gpk_tac ltac:(gp_rec H1 H2 H3 H4 H5 H6 H7 H8 H9).
Qed.

Lemma parseNextObject_gpk fuel : gpk (parseNextObject fuel).
Proof. apply (gblock_all fuel). Qed.

Lemma objectList_inner_gpk fuel : gpk (objectList_inner fuel).
Proof.
  induction fuel as [|fuel IH]; cbn [objectList_inner]; [apply gpk_fail; intros; right; reflexivity|].
  gp_unf. gpk_tac ltac:(first [apply IH | apply parseNextObject_gpk]).
Qed.
Lemma parseObjectList_gpk fuel : gpk (parseObjectList fuel).
Proof.
  induction fuel as [|fuel IH]; cbn [parseObjectList]; [apply gpk_fail; intros; right; reflexivity|].
  gp_unf. gpk_tac ltac:(first [apply IH | apply objectList_inner_gpk]).
Qed.

(** the first pass *)
Lemma first_pass_good fuel s a s' :
  W s -> GPt tbls X (p_tree s) -> (scopeEnter 0 ;;; parseObjectList fuel) s = Ok (a, s') -> p_tables s' = tbls /\ GPt tbls X (p_tree s').
Proof.
  intros Hw Hg H.
  assert (K : gpk (scopeEnter 0 ;;; parseObjectList fuel)) by (apply gpk_bind; [gpk_prim|intros _; apply parseObjectList_gpk]).
  destruct (K s a s' (conj Hw Hg) I H) as (((Ht & _) & Hg') & _). split; [exact Ht|exact Hg'].
Qed.
End GP.

Lemma last_table (earlier : list (list N)) data :
  nth_error (earlier ++ [data]) (N.to_nat (N.of_nat (length (earlier ++ [data])) - 1)) = Some data.
Proof.
  rewrite app_length. cbn [length]. replace (N.to_nat (N.of_nat (length earlier + 1) - 1)) with (length earlier) by lia.
  rewrite nth_error_app2, Nat.sub_diag; [reflexivity|lia].
Qed.
