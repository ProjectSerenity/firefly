(** In the first pass the functions below parseNextObject create no Method or Scope object and give no
    object a row with pOpFlagDeferParsing (partial correctness, by structural decomposition; mode parseModeSkipAmbiguousBlocks:
    parseNextObject itself does create such objects, so this is an induction of its own over five functions).
    At the end: the first pass creates no free slot ([nfk]), an instance of [first_pass_runs]. *)
From Coq Require Import NArith Arith List Bool Lia.
From FF Require Import Lib.Word Gen.Consts_device_acpi_aml Aml.Stream Aml.Lex Aml.Tree Aml.Parser Aml.TreeSpec Aml.TreeProofs
  Aml.ParserTotalTree Aml.ParserTotalTree2 Aml.ParserTotalTable Aml.ParserTotalRuns Aml.ParserTotalBase Aml.ParserTotalLeaf Aml.ParserTotalFrame Aml.ParserTotalDeferM.
Import ListNotations.
Local Open Scope N_scope.

Definition deferrow (o : Obj) : Prop :=
  exists op fl af, opInfo (o_infoIndex o) = Some (op, fl, af) /\ hasFlag fl aml_pOpFlagDeferParsing = true.
Definition msop (o : Obj) : Prop := o_opcode o = aml_pOpMethod \/ o_opcode o = aml_pOpScope.
Definition benign (o : Obj) : Prop := ~ msop o /\ ~ deferrow o.
Definition same2 (o o' : Obj) : Prop := o_opcode o' = o_opcode o /\ o_infoIndex o' = o_infoIndex o.

Lemma benign_same o o' : same2 o o' -> benign o -> benign o'.
Proof. intros (E1 & E2) (A & B). unfold benign, msop, deferrow. rewrite E1, E2. auto. Qed.

Definition BN (s s' : pstate) : Prop :=
  forall i o', tget (p_tree s') i = Some o' -> (exists o, tget (p_tree s) i = Some o /\ same2 o o') \/ benign o'.

Lemma BN_tree s s' : p_tree s' = p_tree s -> BN s s'.
Proof. intros E i o Ho. rewrite E in Ho. left. exists o. split; [exact Ho|split; reflexivity]. Qed.
Lemma BN_trans s s1 s2 : BN s s1 -> BN s1 s2 -> BN s s2.
Proof.
  intros A B i o Ho. destruct (B i o Ho) as [(o1 & Ho1 & S1)|Hb]; [|right; exact Hb].
  destruct (A i o1 Ho1) as [(o0 & Ho0 & S0)|Hb]; [left; exists o0; split; [exact Ho0|]; destruct S0, S1; split; congruence|right; eapply benign_same; eauto].
Qed.

Definition bn {A} (m : M A) : Prop :=
  forall s a s', m s = Ok (a, s') -> p_allBlocks s = false -> p_allBlocks s' = false /\ BN s s'.

Lemma bn_bind {A B} (m : M A) (f : A -> M B) : bn m -> (forall a, bn (f a)) -> bn (bindM m f).
Proof.
  intros Hm Hf s b s' H Hmd. apply bindM_ok in H. destruct H as (a & s1 & E1 & E2).
  destruct (Hm _ _ _ E1 Hmd) as (M1 & A1). destruct (Hf a _ _ _ E2 M1) as (M2 & A2).
  split; [exact M2|exact (BN_trans _ _ _ A1 A2)].
Qed.
Lemma bn_if {A} (b : bool) (m1 m2 : M A) : (b = true -> bn m1) -> (b = false -> bn m2) -> bn (if b then m1 else m2).
Proof. destruct b; auto. Qed.
Lemma bn_getmode {B} (f : bool -> M B) : bn (f false) -> bn (bindM (Parser.get p_allBlocks) f).
Proof. intros Hf s b s' H Hmd. unfold bindM, Parser.get in H. rewrite Hmd in H. exact (Hf _ _ _ H Hmd). Qed.
Lemma bn_inert {A} (m : M A) : runs inert m -> bn m.
Proof. intros Hm s a s' H Hmd. destruct (Hm _ _ _ H) as (Qt & _ & Qm & _). split; [rewrite Qm; exact Hmd|apply BN_tree; exact Qt]. Qed.
Lemma bn_fail {A} (m : M A) : (forall s, m s = Panic \/ m s = OutOfFuel) -> bn m.
Proof. intros H s a s' E. destruct (H s) as [F|F]; rewrite F in E; discriminate. Qed.

Lemma bn_wrf p f : (forall o, same2 o (f o)) -> bn (wrf p f).
Proof.
  intros H1 s a s' H Hmd. split; [rewrite (msame_tu _ _ _ _ H); exact Hmd|].
  unfold wrf, tu in H. destruct (wr (p_tree s) p f) as [t'| |] eqn:E; try discriminate.
  inversion H; subst. destruct (wr_inv _ _ _ _ E) as (-> & _). unfold BN. cbn [p_tree with_tree].
  intros i o Ho. rewrite get_tset in Ho. destruct (N.eqb_spec i p) as [->|_]; [|left; exists o; split; [exact Ho|split; reflexivity]].
  destruct (tget (p_tree s) p) as [o0|] eqn:E0; cbn [option_map] in Ho; [|discriminate]. inversion Ho; subst o. left. exists o0. split; [reflexivity|apply H1].
Qed.

Definition okop (opc : N) : Prop :=
  opc <> aml_pOpMethod /\ opc <> aml_pOpScope /\
  forall idx op fl af, opcodeTableIndex opc true = Some idx -> opInfo idx = Some (op, fl, af) -> hasFlag fl aml_pOpFlagDeferParsing = false.

Lemma okop_benign opc (po : Obj) : okop opc -> o_opcode po = opc -> opcodeTableIndex opc true = Some (o_infoIndex po) -> benign po.
Proof.
  intros (N1 & N2 & N3) Hop Hidx. split.
  - intros [E|E]; rewrite Hop in E; contradiction.
  - intros (op & fl & af & Hrow & Hf). rewrite (N3 _ op fl af Hidx Hrow) in Hf. discriminate.
Qed.

Lemma bn_newObj opc : okop opc -> bn (newObj opc).
Proof.
  intros Hok s a s' H Hmd. split; [rewrite (msame_newObj _ _ _ _ H); exact Hmd|].
  unfold newObj in H. destruct (newObject (p_tree s) opc (p_handle s)) as [[t' p]| |] eqn:E; try discriminate.
  inversion H; subst a s'. unfold BN. cbn [p_tree with_tree].
  destruct (newObject_shape _ _ _ _ _ E) as ((po & Hpo & Hpop & Hidx & _) & _ & Hbw & _).
  intros i o Ho. destruct (N.eq_dec i p) as [->|Hip]; [right|left; exists o; split; [apply (Hbw i o Hip Ho)|split; reflexivity]].
  assert (Epo : po = o) by congruence. subst po. rewrite pOpcodeTableIndex_eq in Hidx.
  destruct (opcodeTableIndex opc true) as [i0|] eqn:Ei; [|discriminate]. inversion Hidx as [Hii].
  apply (okop_benign opc o Hok Hpop). rewrite Ei, Hii. reflexivity.
Qed.

Lemma bn_tu_pframe (f : T -> outcome T) : (forall t t', f t = Ok t' -> pframe t t') -> bn (tu f).
Proof.
  intros Hf s a s' H Hmd. split; [rewrite (msame_tu _ _ _ _ H); exact Hmd|].
  unfold tu in H. destruct (f (p_tree s)) as [t'| |] eqn:E; try discriminate. inversion H; subst. unfold BN. cbn [p_tree with_tree].
  intros i o Ho. destruct (pframe_inv _ _ _ _ (Hf _ _ E) Ho) as (o0 & Ho0 & E1 & E2 & _). left. exists o0. split; [exact Ho0|split; assumption].
Qed.

Lemma bn_tableIndex {B} op b (k : N -> M B) : (forall idx, opcodeTableIndex op b = Some idx -> bn (k idx)) -> bn (bindM (tableIndex op b) k).
Proof.
  intros Hk s x s' H Hmd. unfold bindM, tableIndex in H. destruct (opcodeTableIndex op b) as [i|] eqn:E; [|discriminate].
  exact (Hk i eq_refl _ _ _ H Hmd).
Qed.

(** the operators parseTarget accepts *)
Definition okopb (opc : N) : bool :=
  negb (opc =? aml_pOpMethod) && negb (opc =? aml_pOpScope) &&
  match opcodeTableIndex opc true with
  | Some i => match opInfo i with Some (_, fl, _) => negb (hasFlag fl aml_pOpFlagDeferParsing) | None => true end
  | None => true
  end.

Lemma okopb_sound opc : okopb opc = true -> okop opc.
Proof.
  unfold okopb. intros H. apply andb_prop in H. destruct H as (H & H3). apply andb_prop in H. destruct H as (H1 & H2).
  apply negb_true_iff in H1. apply negb_true_iff in H2. apply N.eqb_neq in H1. apply N.eqb_neq in H2.
  split; [exact H1|]. split; [exact H2|]. intros idx op fl af Hi Hr. rewrite Hi, Hr in H3. apply negb_true_iff in H3. exact H3.
Qed.

Lemma target_okop_all : forallb (fun op => negb (target_cond op) || okopb op) ops511 = true.
Proof. vm_compute. reflexivity. Qed.

Lemma target_okop op : op <= 0x1fe -> target_cond op = true -> okop op.
Proof.
  intros Hop Hc. pose proof (proj1 (forallb_forall _ _) target_okop_all op (In_ops511 op Hop)) as H. cbv beta in H.
  rewrite Hc in H. cbn [negb orb] in H. apply okopb_sound. exact H.
Qed.

Lemma oti_bound op b i : opcodeTableIndex op b = Some i -> op <= 0x1fe.
Proof.
  unfold opcodeTableIndex. destruct (N.leb_spec op 0xff) as [H|H]; [intros _; lia|].
  destruct (nthN aml_extendedOpcodeMap (op - 0xff)) as [idx|] eqn:E; [|discriminate]. intros _.
  unfold nthN in E. assert (Hlt : (N.to_nat (op - 0xff) < length aml_extendedOpcodeMap)%nat) by (apply nth_error_Some; rewrite E; discriminate).
  assert (Hlen : length aml_extendedOpcodeMap = 256%nat) by (vm_compute; reflexivity). rewrite Hlen in Hlt. lia.
Qed.

Lemma nextOpcode_bound r op r' : nextOpcode r = Ok (op, true, r') -> op <= 0x1fe.
Proof.
  unfold nextOpcode. destruct (readByte r) as [[nx r1]| |]; cbn [bind]; try discriminate.
  destruct nx as [next|]; [|discriminate].
  assert (K : forall o l rr, match opcodeTableIndex o false with
                             | None => Panic
                             | Some idx => if idx =? aml_badOpcode then Ok (0xffff, false, setOffset rr (w32 (r_offset rr + two32 - l)))
                                           else Ok (o, true, rr) end = Ok (op, true, r') -> op <= 0x1fe).
  { intros o l rr H. destruct (opcodeTableIndex o false) as [idx|] eqn:E; [|discriminate].
    destruct (idx =? aml_badOpcode) eqn:Eb; [discriminate|]. inversion H; subst. eapply oti_bound; eauto. }
  destruct (next =? aml_extOpPrefix).
  - destruct (readByte r1) as [[nx2 r2]| |]; cbn [bind]; try discriminate. destruct nx2 as [next2|]; [|discriminate]. apply K.
  - apply K.
Qed.

Lemma bn_lex_next {B} (k : N * bool -> M B) :
  (forall op, op <= 0x1fe -> bn (k (op, true))) -> (forall op, bn (k (op, false))) -> bn (bindM (lex nextOpcode) k).
Proof.
  intros Ht Hn s b s' H Hmd. unfold bindM, lex in H. destruct (nextOpcode (p_r s)) as [[[op ok] r1]| |] eqn:E; try discriminate.
  assert (Hst : p_allBlocks (with_r s r1) = false) by exact Hmd.
  assert (A0 : BN s (with_r s r1)) by (apply BN_tree; reflexivity).
  destruct ok.
  - destruct (Ht op (nextOpcode_bound _ _ _ E) _ _ _ H Hst) as (M1 & A1). split; [exact M1|exact (BN_trans _ _ _ A0 A1)].
  - destruct (Hn op _ _ _ H Hst) as (M1 & A1). split; [exact M1|exact (BN_trans _ _ _ A0 A1)].
Qed.

(** ---- automation ---- *)
Ltac okop_const := apply okopb_sound; vm_compute; reflexivity.

Ltac bn_wrf_side := let o := fresh "o" in intros o; split; reflexivity.

Ltac bn_prim :=
  lazymatch goal with
  | |- bn (wrf _ _) => apply bn_wrf; bn_wrf_side
  | |- bn (newObj _) => apply bn_newObj; first [okop_const | (apply target_okop; assumption)]
  | |- bn (tu (fun t => append t _ _)) => apply bn_tu_pframe; intros ? ?; apply append_pframe
  | |- bn (tu (fun t => appendAfter t _ _ _)) => apply bn_tu_pframe; intros ? ?; apply appendAfter_pframe
  | |- bn (tu (fun t => detach t _ _)) => apply bn_tu_pframe; intros ? ?; apply detach_pframe
  | |- _ => apply bn_inert; inert_prim
  end.

Ltac bn_unf := parser_unf.

Ltac bn_tac rec :=
  repeat lazymatch goal with
  | |- bn (bindM (Parser.get p_allBlocks) _) => apply bn_getmode; cbv beta; cbn [negb andb]
  | |- bn (bindM (tableIndex _ _) _) => apply bn_tableIndex; intros ? ?
  | |- bn (bindM (lex nextOpcode) (fun _ => let '(_, _) := _ in _)) =>
      apply bn_lex_next; [intros ? ?; cbv beta iota; cbn [negb]|intros ?; cbv beta iota; cbn [negb]]
  | |- bn (bindM _ _) => apply bn_bind; [|intros ?]
  | |- bn (match ?x with _ => _ end) => first [(apply bn_if; intros ?) | destruct x]
  | |- bn _ => first [rec | bn_prim]
  end.

(** ---- the object parseSimpleArg creates, field by field (partial correctness) ---- *)
Lemma newObject_init (t t' : T) opc th p : newObject t opc th = Ok (t', p) ->
  exists o info, tget t' p = Some (init_object opc info th o).
Proof.
  unfold newObject. intros H. apply bind_ok in H. destruct H as ([t1 p1] & _ & H).
  apply bind_ok in H. destruct H as (info & _ & H). apply bind_ok in H. destruct H as (t2 & Hw & H). inversion H; subst t2 p1. clear H.
  destruct (wr_inv _ _ _ _ Hw) as (-> & o & Ho). exists o, info. rewrite get_tset, N.eqb_refl, Ho. reflexivity.
Qed.

Lemma wrf_at p f s u s' o : wrf p f s = Ok (u, s') -> tget (p_tree s) p = Some o -> tget (p_tree s') p = Some (f o).
Proof.
  unfold wrf, tu. intros H Ho. destruct (wr (p_tree s) p f) as [t'| |] eqn:E; try discriminate. inversion H; subst.
  destruct (wr_inv _ _ _ _ E) as (-> & _). cbn [p_tree with_tree]. rewrite get_tset, N.eqb_refl, Ho. reflexivity.
Qed.

Lemma simple_num_obj obj op bytes s a r s' o0 : simple_num obj op bytes s = Ok ((a, r), s') -> tget (p_tree s) obj = Some o0 ->
  exists v idx, tget (p_tree s') obj = Some (set_infoIndex idx (set_value (Some (VNum v)) (set_opcode op o0))).
Proof.
  unfold simple_num. intros H Ho.
  apply bindM_ok in H. destruct H as (u1 & s1 & E1 & H). pose proof (wrf_at _ _ _ _ _ _ E1 Ho) as Ho1.
  apply bindM_ok in H. destruct H as ([v ok] & s2 & E2 & H). rewrite <- (proj1 (inert_lex _ _ _ _ E2)) in Ho1.
  apply bindM_ok in H. destruct H as (u3 & s3 & E3 & H). pose proof (wrf_at _ _ _ _ _ _ E3 Ho1) as Ho3.
  apply bindM_ok in H. destruct H as (idx & s4 & E4 & H). rewrite <- (proj1 (inert_tableIndex _ _ _ _ _ E4)) in Ho3.
  apply bindM_ok in H. destruct H as (u5 & s5 & E5 & H). pose proof (wrf_at _ _ _ _ _ _ E5 Ho3) as Ho5.
  inversion H; subst. exists v, idx. exact Ho5.
Qed.

Lemma simple_str_obj obj tbl op f s a r s' o0 : simple_str obj tbl op f s = Ok ((a, r), s') -> tget (p_tree s) obj = Some o0 ->
  exists v idx, tget (p_tree s') obj = Some (set_infoIndex idx (set_value (Some (bytesValue tbl v)) (set_opcode op o0))).
Proof.
  unfold simple_str. intros H Ho.
  apply bindM_ok in H. destruct H as (u1 & s1 & E1 & H). pose proof (wrf_at _ _ _ _ _ _ E1 Ho) as Ho1.
  apply bindM_ok in H. destruct H as ([v ok] & s2 & E2 & H). rewrite <- (proj1 (inert_lex _ _ _ _ E2)) in Ho1.
  apply bindM_ok in H. destruct H as (u3 & s3 & E3 & H). pose proof (wrf_at _ _ _ _ _ _ E3 Ho1) as Ho3.
  apply bindM_ok in H. destruct H as (idx & s4 & E4 & H). rewrite <- (proj1 (inert_tableIndex _ _ _ _ _ E4)) in Ho3.
  apply bindM_ok in H. destruct H as (u5 & s5 & E5 & H). pose proof (wrf_at _ _ _ _ _ _ E5 Ho3) as Ho5.
  inversion H; subst. exists v, idx. exact Ho5.
Qed.


Lemma wrf_inv2 p f s u s' : wrf p f s = Ok (u, s') -> exists o, tget (p_tree s) p = Some o.
Proof.
  unfold wrf, tu. intros H. destruct (wr (p_tree s) p f) as [t'| |] eqn:E; try discriminate. destruct (wr_inv _ _ _ _ E) as (_ & o & Ho). eauto.
Qed.

Lemma benign_const op idx (o : Obj) : okop op -> opcodeTableIndex op true = Some idx -> benign (set_infoIndex idx (set_opcode op o)).
Proof. intros Hok Hi. apply (okop_benign op _ Hok); [reflexivity|exact Hi]. Qed.

Lemma parseByteList_bn obj n : bn (parseByteList obj n).
Proof.
  intros s r s' H Hmd. split; [rewrite (parseByteList_msame obj n _ _ _ H); exact Hmd|].
  intros i o' Ho'. destruct (N.eq_dec i obj) as [->|Hne].
  2:{ left. exists o'. split; [rewrite <- (parseByteList_only obj n s r s' H i Hne); exact Ho'|split; reflexivity]. }
  unfold parseByteList in H. apply bindM_ok in H. destruct H as (rr & s1 & E1 & H). inversion E1; subst rr s1. clear E1.
  destruct ((r_pkgEnd (p_r s) <? r_offset (p_r s)) || (w32 (r_pkgEnd (p_r s) + two32 - r_offset (p_r s)) <? n)).
  { inversion H; subst. left. exists o'. split; [exact Ho'|split; reflexivity]. }
  apply bindM_ok in H. destruct H as (u1 & s1 & E1 & H). destruct (wrf_inv2 _ _ _ _ _ E1) as (o0 & Ho0). pose proof (wrf_at _ _ _ _ _ _ E1 Ho0) as Ho1.
  apply bindM_ok in H. destruct H as (idx & s2 & E2 & H). unfold tableIndex in E2.
  destruct (opcodeTableIndex aml_pOpIntByteList true) as [i0|] eqn:Ei; [|discriminate]. inversion E2; subst idx s2. clear E2.
  apply bindM_ok in H. destruct H as (u3 & s3 & E3 & H). pose proof (wrf_at _ _ _ _ _ _ E3 Ho1) as Ho3.
  apply bindM_ok in H. destruct H as (ptr & s4 & E4 & H). rewrite <- (proj1 (inert_lift _ _ _ _ E4)) in Ho3.
  apply bindM_ok in H. destruct H as (tbl & s5 & E5 & H). inversion E5; subst tbl s5. clear E5.
  apply bindM_ok in H. destruct H as (u6 & s6 & E6 & H). pose proof (wrf_at _ _ _ _ _ _ E6 Ho3) as Ho6.
  apply bindM_ok in H. destruct H as (u7 & s7 & E7 & H). unfold setOffsetM in E7. rewrite <- (proj1 (inert_ru _ _ _ _ E7)) in Ho6.
  inversion H; subst. rewrite Ho6 in Ho'. inversion Ho'; subst o'. right.
  apply (okop_benign aml_pOpIntByteList); [apply okopb_sound; vm_compute; reflexivity|reflexivity|exact Ei].
Qed.

Lemma parseSimpleArg_bn ty : bn (parseSimpleArg ty).
Proof.
  intros s [a r] s' H Hmd. split; [rewrite (parseSimpleArg_msame ty _ _ _ H); exact Hmd|].
  destruct (parseSimpleArg_pc _ _ _ _ _ H) as (t1 & p & En & Hfr & _).
  destruct (newObject_shape _ _ _ _ _ En) as (_ & _ & Hbw & _).
  intros i o' Ho'. destruct (N.eq_dec i p) as [->|Hne].
  2:{ left. exists o'. split; [apply (Hbw i o' Hne); rewrite <- (Hfr i Hne); exact Ho'|split; reflexivity]. }
  right. unfold parseSimpleArg in H.
  apply bindM_ok in H. destruct H as (q & s1 & E1 & H).
  unfold newObj in E1. rewrite En in E1. inversion E1; subst q s1. clear E1. destruct (newObject_init _ _ _ _ _ En) as (o & info & Hq).
  assert (Hinfo : opcodeTableIndex 0 true = Some info).
  { destruct (newObject_shape _ _ _ _ _ En) as ((po & Hpo & _ & Hidx & _) & _). rewrite Hq in Hpo. inversion Hpo; subst po.
    rewrite pOpcodeTableIndex_eq in Hidx. cbn [o_infoIndex init_object] in Hidx. destruct (opcodeTableIndex 0 true); [inversion Hidx; reflexivity|discriminate]. }
  apply bindM_ok in H. destruct H as (off & s2 & E2 & H). inversion E2; subst off s2. clear E2.
  apply bindM_ok in H. destruct H as (u3 & s3 & E3 & H). pose proof (wrf_at _ _ _ _ _ _ E3 Hq) as Hq3.
  apply bindM_ok in H. destruct H as (tbl & s4 & E4 & H). inversion E4; subst tbl s4. clear E4. cbv zeta in H.
  assert (Hnum : forall op bytes, okop op -> simple_num p op bytes s3 = Ok ((a, r), s') -> benign o').
  { intros op bytes Hok E. destruct (simple_num_obj _ _ _ _ _ _ _ _ E Hq3) as (v & idx & Hg). destruct (simple_num_info _ _ _ _ _ _ E) as (po & idx' & Hpo & Hidx' & Hii).
    rewrite Hg in Ho'. inversion Ho'; subst o'. rewrite Hg in Hpo. inversion Hpo; subst po. cbn [o_infoIndex set_infoIndex] in Hii. subst idx'.
    apply (okop_benign op); [exact Hok|reflexivity|exact Hidx']. }
  assert (Hstr : forall tb op f, okop op -> simple_str p tb op f s3 = Ok ((a, r), s') -> benign o').
  { intros tb op f Hok E. destruct (simple_str_obj _ _ _ _ _ _ _ _ _ E Hq3) as (v & idx & Hg). destruct (simple_str_info _ _ _ _ _ _ _ E) as (po & idx' & Hpo & Hidx' & Hii).
    rewrite Hg in Ho'. inversion Ho'; subst o'. rewrite Hg in Hpo. inversion Hpo; subst po. cbn [o_infoIndex set_infoIndex] in Hii. subst idx'.
    apply (okop_benign op); [exact Hok|reflexivity|exact Hidx']. }
  destruct (ty =? aml_pArgTypeByteData); [apply (Hnum aml_pOpBytePrefix 1); [okop_const|exact H]|].
  destruct (ty =? aml_pArgTypeWordData); [apply (Hnum aml_pOpWordPrefix 2); [okop_const|exact H]|].
  destruct (ty =? aml_pArgTypeDwordData); [apply (Hnum aml_pOpDwordPrefix 4); [okop_const|exact H]|].
  destruct (ty =? aml_pArgTypeQwordData); [apply (Hnum aml_pOpQwordPrefix 8); [okop_const|exact H]|].
  destruct (ty =? aml_pArgTypeString); [apply (Hstr (N.of_nat (length (p_tables s3)) - 1) aml_pOpStringPrefix parseString); [okop_const|exact H]|].
  destruct (ty =? aml_pArgTypeNameString); [apply (Hstr (N.of_nat (length (p_tables s3)) - 1) aml_pOpIntNamePath parseNameString); [okop_const|exact H]|].
  inversion H; subst. rewrite Hq3 in Ho'. inversion Ho'; subst o'.
  apply (okop_benign 0); [okop_const|reflexivity|exact Hinfo].
Qed.

Lemma readName_go_bn field cnt : forall i, bn (readName_go cnt i field).
Proof. induction cnt as [|cnt IH]; intros i; cbn [readName_go]; bn_unf; bn_tac ltac:(apply IH). Qed.

Lemma fieldElements_go_bn fuel : forall curObj f, bn (fieldElements_go fuel curObj f).
Proof.
  induction fuel as [|fuel IH]; intros curObj f; cbn [fieldElements_go]; [apply bn_fail; intros; right; reflexivity|].
  bn_unf. bn_tac ltac:(first [apply IH | apply readName_go_bn | apply parseByteList_bn]).
Qed.

Lemma parseFieldElements_bn curObj : bn (parseFieldElements curObj).
Proof. unfold parseFieldElements. bn_unf. bn_tac ltac:(apply fieldElements_go_bn). Qed.

(** the functions below parseNextObject, in the mode of the first pass *)
Definition bblock (fuel : nat) : Prop :=
  (forall c, bn (parseObjectArgs fuel c)) /\ (forall inf c i, bn (parseArgs fuel inf c i)) /\
  (forall inf c ty, bn (parseArg fuel inf c ty)) /\ bn (parseTarget fuel) /\ bn (parseNamePathOrMethodCall fuel).

Ltac bn_call H1 H2 H3 H4 H5 :=
  idtac; lazymatch goal with
  | |- bn (parseObjectArgs _ _) => apply H1
  | |- bn (parseArgs _ _ _ _) => apply H2
  | |- bn (parseArg _ _ _ _) => apply H3
  | |- bn (parseTarget _) => apply H4
  | |- bn (parseNamePathOrMethodCall _) => apply H5
  | |- bn (parseSimpleArg _) => apply parseSimpleArg_bn
  | |- bn (parseByteList _ _) => apply parseByteList_bn
  | |- bn (parseFieldElements _) => apply parseFieldElements_bn
  end.

Lemma bblock_all : forall fuel, bblock fuel.
Proof.
  induction fuel as [|fuel (H1 & H2 & H3 & H4 & H5)].
  - unfold bblock. repeat match goal with |- _ /\ _ => split end; intros; cbn; apply bn_fail; intros; right; reflexivity.
  - unfold bblock. repeat match goal with |- _ /\ _ => split end; intros.
    + cbn [parseObjectArgs]. bn_unf. bn_tac ltac:(bn_call H1 H2 H3 H4 H5).
    + cbn [parseArgs]. destruct inf as [[? ?] ?]. bn_unf. bn_tac ltac:(bn_call H1 H2 H3 H4 H5).
    + cbn [parseArg]. destruct inf as [[? ?] ?]. bn_unf. bn_tac ltac:(bn_call H1 H2 H3 H4 H5).
    + cbn [parseTarget]. bn_unf. bn_tac ltac:(bn_call H1 H2 H3 H4 H5).
    + cbn [parseNamePathOrMethodCall]. bn_unf. bn_tac ltac:(bn_call H1 H2 H3 H4 H5).
Qed.

Lemma parseObjectArgs_bn fuel c : bn (parseObjectArgs fuel c).
Proof. apply (bblock_all fuel). Qed.
Lemma parseNamePathOrMethodCall_bn fuel : bn (parseNamePathOrMethodCall fuel).
Proof. apply (bblock_all fuel). Qed.

(** ---- the first pass creates no free slot ---- *)
Definition NFt (t : T) : Prop := forall i o, tget t i = Some o -> o_opcode o <> opFreed.
Definition nfk {A} (m : M A) : Prop := forall s a s', m s = Ok (a, s') -> NFt (p_tree s) -> NFt (p_tree s').

Lemma nextOpcode_not_freed r op r' : nextOpcode r = Ok (op, true, r') -> op <> opFreed.
Proof.
  unfold nextOpcode. destruct (readByte r) as [[nx r1]| |]; cbn [bind]; try discriminate.
  destruct nx as [next|]; [|discriminate].
  assert (K : forall o l rr, match opcodeTableIndex o false with
                             | None => Panic
                             | Some idx => if idx =? aml_badOpcode then Ok (0xffff, false, setOffset rr (w32 (r_offset rr + two32 - l)))
                                           else Ok (o, true, rr) end = Ok (op, true, r') -> op <> opFreed).
  { intros o l rr H. destruct (opcodeTableIndex o false) as [idx|] eqn:E; [|discriminate].
    destruct (idx =? aml_badOpcode) eqn:Eb; [discriminate|]. inversion H; subst. intros F. rewrite F in E. vm_compute in E.
    inversion E; subst idx. vm_compute in Eb. discriminate. }
  destruct (next =? aml_extOpPrefix).
  - destruct (readByte r1) as [[nx2 r2]| |]; cbn [bind]; try discriminate. destruct nx2 as [next2|]; [|discriminate]. apply K.
  - apply K.
Qed.
Lemma nfk_steps : steps (fun s s' => NFt (p_tree s) -> NFt (p_tree s')) (fun op => op <> opFreed).
Proof.
  assert (Hnew : forall s opc t p, opc <> opFreed -> newObject (p_tree s) opc (p_handle s) = Ok (t, p) -> NFt (p_tree s) -> NFt t).
  { intros s opc t p Hne E Hn i o Ho. destruct (newObject_shape _ _ _ _ _ E) as ((po & Hpo & Hpop & _) & _ & Hbw & _).
    destruct (N.eq_dec i p) as [->|Hip]; [assert (Epo : po = o) by congruence; rewrite <- Epo, Hpop; exact Hne|apply (Hn i o (Hbw i o Hip Ho))]. }
  assert (Hwr : forall s p f t, (forall o : Obj, o_opcode (f o) = o_opcode o \/ o_opcode (f o) <> opFreed) -> wr (p_tree s) p f = Ok t ->
                 NFt (p_tree s) -> NFt t).
  { intros s p f t Hf E Hn i o Ho. destruct (wr_inv _ _ _ _ E) as (-> & _). rewrite get_tset in Ho.
    destruct (N.eqb_spec i p) as [->|_]; [|apply (Hn i o Ho)].
    destruct (tget (p_tree s) p) as [o0|] eqn:E0; cbn [option_map] in Ho; [|discriminate]. inversion Ho; subst o.
    destruct (Hf o0) as [E1|E1]; [rewrite E1; apply (Hn p o0 E0)|exact E1]. }
  constructor.
  - auto.
  - auto.
  - intros s s' (Qt & _) Hn. rewrite Qt. exact Hn.
  - intros s opc t p Hne E. exact (Hnew _ _ _ _ Hne E).
  - intros s p f t Hf E. apply (Hwr _ _ _ _ (fun o => or_introl (proj1 (Hf o))) E).
  - intros s p op t Hne E. apply (Hwr _ p (set_opcode op) _ (fun o => or_intror Hne) E).
  - intros s t Hp Hn i o Ho. destruct (pframe_inv _ _ _ _ Hp Ho) as (o0 & Ho0 & E1 & _). rewrite E1. apply (Hn i o0 Ho0).
  - intros op Hin. cbn [In named_opcodes] in Hin. decompose [or] Hin; try contradiction; subst op; discriminate.
Qed.

Lemma parseNextObject_nfk fuel : nfk (parseNextObject fuel).
Proof.
  apply (first_pass_runs _ _ nfk_steps); [|exact nextOpcode_not_freed].
  intros s t p _. apply (st_new _ _ nfk_steps). vm_compute. discriminate.
Qed.
