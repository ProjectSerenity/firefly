(** The hand-written model of ObjectTree (Aml/Tree.v) equals the Go -> Gallina translation of obj_tree.go
    (Gen/Trans_aml_tree.v, regenerated on every run by gen/gotrans in pool-pointer mode, gen/gotrans/ext_c13trans.go).
    Proofs; the statements are repeated in Props/C13_trans.v.

    [tr_tree] maps a model tree to the translation's record: the pool is the list of the translated objects
    (a name is the list of its four bytes), a model pointer [p] is the translation's [Some p], nil is [None].

    The two sides run through the same statements in the same order, so each operation is proved statement by
    statement ([sim_rd], [sim_wr], [sim_at], [sim_join]).  They differ in two ways only: the model reads a field once
    where Go reads it again after writes that leave it alone ([rd_upd_frame]), and the model may read two fields in
    the other order ([bind_swap]). *)
From Coq Require Import NArith PeanoNat List Bool Lia.
From FF Require Import Lib.Word Lib.GoOps Lib.GoPool Gen.Consts_aml_tree Gen.Trans_aml_tree Aml.Stream Aml.Tree
                       Aml.TreeSpec Aml.TreeProofs.
Import ListNotations.
Local Open Scope N_scope.
(* Aml/TreeProofs.v closes these two; here they meet the translation's constants *)
Transparent InvalidIndex opFreed.

Section WithValue.
Context {V : Type}.
Notation Obj := (Object V).
Notation Tree := (ObjectTree V).

Definition tr_obj (o : Obj) : @go_aml_Object V :=
  mk_go_aml_Object (o_opcode o) (o_infoIndex o) (o_tableHandle o) (name_bytes (o_name o)) (o_index o) (o_parent o)
                   (o_prev o) (o_next o) (o_first o) (o_last o) (o_amlOffset o) (o_pkgEnd o) (o_value o).

Definition tr_tree (t : Tree) : @go_aml_ObjectTree V :=
  mk_go_aml_ObjectTree (map tr_obj (t_pool t)) (t_free t).

(** outcome of the model -> result of the translation *)
Definition lift {A B} (f : A -> B) (r : outcome A) : gres B :=
  match r with Ok a => GOk (f a) | Panic => GPanic | OutOfFuel => GFuel end.

(** the tree with slot [p] replaced by [f] of it *)
Definition upd (t : Tree) (p : N) (f : Obj -> Obj) : Tree :=
  mkTree (list_upd (t_pool t) (N.to_nat p) f) (t_free t).

Lemma wr_upd : forall t p f, wr t p f = (do _ <- deref t p; Ok (upd t p f)).
Proof. reflexivity. Qed.

Lemma upd_tset : forall t p f, upd t p f = tset t p f.
Proof. reflexivity. Qed.

Lemma deref_upd : forall t q f p,
  deref (upd t q f) p =
  if q =? p then match deref t q with Ok o => Ok (f o) | e => e end else deref t p.
Proof.
  intros. rewrite upd_tset, !deref_get, get_tset, (N.eqb_sym p q).
  destruct (N.eqb_spec q p) as [->|]; [destruct (get t p)|]; reflexivity.
Qed.

Lemma pool_len_upd : forall t q f, pool_len (upd t q f) = pool_len t.
Proof. intros. unfold pool_len. now rewrite upd_tset, tset_len. Qed.

Lemma t_free_upd : forall t q f, t_free (upd t q f) = t_free t.
Proof. reflexivity. Qed.

Lemma upd_free : forall t q f x, mkTree (t_pool (upd t q f)) x = upd (mkTree (t_pool t) x) q f.
Proof. reflexivity. Qed.

Lemma deref_mkTree : forall (t : Tree) x p, deref (mkTree (t_pool t) x) p = deref t p.
Proof. reflexivity. Qed.

Lemma deref_not_fuel : forall (t : Tree) p, deref t p <> OutOfFuel.
Proof. intros. unfold deref. destruct (nth_error (t_pool t) (N.to_nat p)); discriminate. Qed.

Lemma rd_upd_frame : forall t p g q (fld : Obj -> N),
  (forall o, fld (g o) = fld o) -> rd (upd t p g) q fld = rd t q fld.
Proof.
  intros t p g q fld H. unfold rd. rewrite deref_upd. destruct (N.eqb_spec p q) as [->|]; [|reflexivity].
  destruct (deref t q); cbn [bind]; [rewrite H|..]; reflexivity.
Qed.

(** ---- the translation's primitives on [tr_tree] ---- *)
Notation pool_of t := (f_ObjectTree_objPool (tr_tree t)).

Lemma glenA_tr : forall t, glenA (pool_of t) = N.of_nat (length (t_pool t)).
Proof. intros. unfold glenA, tr_tree. cbn. now rewrite map_length. Qed.

Lemma gderef_tr : forall t p,
  gderef (pool_of t) (Some p) = match deref t p with Ok o => Some (tr_obj o) | _ => None end.
Proof.
  intros. unfold gderef, gidxA, deref, tr_tree. cbn [f_ObjectTree_objPool].
  rewrite nth_error_map. destruct (nth_error (t_pool t) (N.to_nat p)); reflexivity.
Qed.

Lemma map_list_upd : forall (l : list Obj) n o f,
  nth_error l n = Some o ->
  firstn n (map tr_obj l) ++ tr_obj (f o) :: skipn (S n) (map tr_obj l) = map tr_obj (list_upd l n f).
Proof.
  induction l as [|x l IH]; intros [|n] o f H; simpl in *; try discriminate.
  - now inversion H.
  - f_equal. apply (IH n o f H).
Qed.

Lemma gpstore_tr : forall t p o f,
  deref t p = Ok o ->
  gpstore (pool_of t) (Some p) (tr_obj (f o)) = Some (pool_of (upd t p f)).
Proof.
  intros t p o f H. unfold deref in H.
  destruct (nth_error (t_pool t) (N.to_nat p)) as [o'|] eqn:E; [|discriminate]. inversion H; subst o'.
  unfold gpstore, gsetA. rewrite glenA_tr.
  assert (L : (N.to_nat p < length (t_pool t))%nat) by (apply nth_error_Some; congruence).
  replace (p <? N.of_nat (length (t_pool t))) with true by (symmetry; apply N.ltb_lt; lia).
  unfold tr_tree, upd. cbn [f_ObjectTree_objPool t_pool]. now rewrite (map_list_upd _ _ _ f E).
Qed.

Lemma set_pool_tr : forall t t',
  t_free t' = t_free t -> set_f_ObjectTree_objPool (tr_tree t) (pool_of t') = tr_tree t'.
Proof. intros t t' H. unfold set_f_ObjectTree_objPool, tr_tree. cbn. now rewrite H. Qed.

Lemma set_pool_upd : forall t p f, set_f_ObjectTree_objPool (tr_tree t) (pool_of (upd t p f)) = tr_tree (upd t p f).
Proof. intros. now apply set_pool_tr. Qed.

Lemma free_tr : forall t, f_ObjectTree_freeListHeadIndex (tr_tree t) = t_free t.
Proof. reflexivity. Qed.

Lemma set_free_tr : forall t x,
  set_f_ObjectTree_freeListHeadIndex (tr_tree t) x = tr_tree (mkTree (t_pool t) x).
Proof. reflexivity. Qed.

Lemma gpoolat_tr : forall (t : Tree) i,
  gpoolat (pool_of t) i = match deref t i with Ok _ => Some (Some i) | _ => None end.
Proof.
  intros. unfold gpoolat, deref. rewrite glenA_tr.
  destruct (nth_error (t_pool t) (N.to_nat i)) eqn:E.
  - assert ((N.to_nat i < length (t_pool t))%nat) by (apply nth_error_Some; congruence).
    replace (i <? N.of_nat (length (t_pool t))) with true by (symmetry; apply N.ltb_lt; lia). reflexivity.
  - apply nth_error_None in E.
    replace (i <? N.of_nat (length (t_pool t))) with false by (symmetry; apply N.ltb_ge; lia). reflexivity.
Qed.

Lemma rd_fields : forall o : Obj,
  f_Object_opcode (tr_obj o) = o_opcode o /\ f_Object_infoIndex (tr_obj o) = o_infoIndex o /\
  f_Object_index (tr_obj o) = o_index o /\ f_Object_parentIndex (tr_obj o) = o_parent o /\
  f_Object_prevSiblingIndex (tr_obj o) = o_prev o /\ f_Object_nextSiblingIndex (tr_obj o) = o_next o /\
  f_Object_firstArgIndex (tr_obj o) = o_first o /\ f_Object_lastArgIndex (tr_obj o) = o_last o.
Proof. intros; repeat split. Qed.

Definition set_info (v : N) (o : Obj) : Obj :=
  mkObject (o_opcode o) v (o_tableHandle o) (o_name o) (o_index o) (o_parent o) (o_prev o) (o_next o) (o_first o) (o_last o) (o_amlOffset o) (o_pkgEnd o) (o_value o).
Definition set_th (v : N) (o : Obj) : Obj :=
  mkObject (o_opcode o) (o_infoIndex o) v (o_name o) (o_index o) (o_parent o) (o_prev o) (o_next o) (o_first o) (o_last o) (o_amlOffset o) (o_pkgEnd o) (o_value o).
Lemma set_opcode_tr : forall (o : Obj) x, set_f_Object_opcode (tr_obj o) x = tr_obj (set_opcode x o).
Proof. reflexivity. Qed.
Lemma set_name_tr : forall (o : Obj) x, set_f_Object_name (tr_obj o) (name_bytes x) = tr_obj (set_name x o).
Proof. reflexivity. Qed.
Lemma set_parent_tr : forall (o : Obj) x, set_f_Object_parentIndex (tr_obj o) x = tr_obj (set_parent x o).
Proof. reflexivity. Qed.
Lemma set_prev_tr : forall (o : Obj) x, set_f_Object_prevSiblingIndex (tr_obj o) x = tr_obj (set_prev x o).
Proof. reflexivity. Qed.
Lemma set_next_tr : forall (o : Obj) x, set_f_Object_nextSiblingIndex (tr_obj o) x = tr_obj (set_next x o).
Proof. reflexivity. Qed.
Lemma set_first_tr : forall (o : Obj) x, set_f_Object_firstArgIndex (tr_obj o) x = tr_obj (set_first x o).
Proof. reflexivity. Qed.
Lemma set_last_tr : forall (o : Obj) x, set_f_Object_lastArgIndex (tr_obj o) x = tr_obj (set_last x o).
Proof. reflexivity. Qed.
Lemma set_value_tr : forall (o : Obj) x, set_f_Object_value (tr_obj o) x = tr_obj (set_value x o).
Proof. reflexivity. Qed.

(** ---- ObjectAt ---- *)
Lemma w32_le : forall n, w32 n <= n.
Proof. intros. unfold w32. apply N.mod_le. discriminate. Qed.

Theorem ObjectAt_is_translation : forall (t : Tree) (index : N),
  go_aml_ObjectTree_ObjectAt (tr_tree t) index = GOk (tr_tree t, ObjectAt t index).
Proof.
  intros. unfold go_aml_ObjectTree_ObjectAt, ObjectAt, pool_len.
  rewrite glenA_tr. change (gw 32 ?x) with (w32 x).
  destruct (N.leb_spec (w32 (N.of_nat (length (t_pool t)))) index) as [le|lt]; [reflexivity|].
  rewrite gpoolat_tr. unfold deref at 1.
  destruct (nth_error (t_pool t) (N.to_nat index)) as [o|] eqn:E.
  - cbv zeta. rewrite gderef_tr. unfold deref. rewrite E.
    change (f_Object_opcode (tr_obj o)) with (o_opcode o). unfold opFreed.
    destruct (o_opcode o =? tree_pOpIntFreedObject); reflexivity.
  - apply nth_error_None in E. pose proof (w32_le (N.of_nat (length (t_pool t)))). lia.
Qed.

Lemma wr_wr : forall {C} (t : Tree) p g h (M : Tree -> outcome C),
  (do t' <- wr t p g; do t'' <- wr t' p h; M t'') = (do t' <- wr t p (fun o => h (g o)); M t').
Proof.
  intros. rewrite !wr_upd. destruct (deref t p) as [o| |] eqn:D; [|reflexivity..]. cbn [bind].
  rewrite wr_upd, deref_upd, N.eqb_refl, D. cbn [bind]. f_equal.
  unfold upd. cbn [t_pool t_free]. f_equal.
  generalize (N.to_nat p) as n. induction (t_pool t) as [|a l IH]; intros [|n]; simpl; try reflexivity. f_equal. apply IH.
Qed.

(** the field initialisation of newObject, one assignment at a time as in the Go source *)
Lemma init_object_steps : forall {C} (t : Tree) p opcode info th (M : Tree -> outcome C),
  (do t <- wr t p (init_object opcode info th); M t) =
  (do t <- wr t p (set_opcode opcode); do t <- wr t p (set_info info); do t <- wr t p (set_th th);
   do t <- wr t p (set_name name_zero); do t <- wr t p (set_parent InvalidIndex);
   do t <- wr t p (set_prev InvalidIndex); do t <- wr t p (set_next InvalidIndex);
   do t <- wr t p (set_first InvalidIndex); do t <- wr t p (set_last InvalidIndex);
   do t <- wr t p (set_value None); M t).
Proof. intros. rewrite !wr_wr. reflexivity. Qed.

End WithValue.

(** The translation of a Go statement reads pointers ([gderef]) and stores a pointee back ([gpstore]); the model reads a
    field ([rd]) and rewrites a slot ([wr]).  Each lemma below consumes one such step on both sides and leaves the
    continuations as variables: no case distinction on which pointers alias, and the only facts kept are the objects
    already read from the current tree. *)
Section Steps.
Context {V : Type} {B C : Type} (f : C -> B).
Notation Obj := (Object V).
Notation Tree := (ObjectTree V).
Notation pool_of t := (f_ObjectTree_objPool (tr_tree t)).

Lemma sim_rd : forall (t : Tree) q (fld : Obj -> N) (K : go_aml_Object -> gres B) (M : N -> outcome C),
  (forall o, deref t q = Ok o -> K (tr_obj o) = lift f (M (fld o))) ->
  match gderef (pool_of t) (Some q) with None => GPanic | Some x => K x end = lift f (bind (rd t q fld) M).
Proof.
  intros t q fld K M H. unfold rd. rewrite gderef_tr.
  destruct (deref t q) as [o| |] eqn:D; [apply H; reflexivity | reflexivity | destruct (deref_not_fuel _ _ D)].
Qed.

Lemma gload {t : Tree} {q o} {K : go_aml_Object -> gres B} (D : deref t q = Ok o) :
  match gderef (pool_of t) (Some q) with None => GPanic | Some x => K x end = K (tr_obj o).
Proof. now rewrite gderef_tr, D. Qed.

Lemma rd_of_deref {t : Tree} {q o} {fld : Obj -> N} (D : deref t q = Ok o) : rd t q fld = Ok (fld o).
Proof. unfold rd. now rewrite D. Qed.

Lemma rd_known {t : Tree} {q o} {fld : Obj -> N} {M : N -> outcome C} (D : deref t q = Ok o) :
  bind (rd t q fld) M = M (fld o).
Proof. unfold rd. now rewrite D. Qed.

(** the translation reads a field again that the model has kept from an earlier tree *)
Lemma gload_rd : forall (t : Tree) q (fld : Obj -> N) v (K : go_aml_Object -> gres B) R,
  rd t q fld = Ok v ->
  (forall o, fld o = v -> K (tr_obj o) = R) ->
  match gderef (pool_of t) (Some q) with None => GPanic | Some x => K x end = R.
Proof.
  intros t q fld v K R H HK. unfold rd in H. rewrite gderef_tr.
  destruct (deref t q) as [o| |]; try discriminate. apply HK. now inversion H.
Qed.

Lemma sim_wr : forall (t : Tree) p (G : go_aml_Object -> go_aml_Object) (g : Obj -> Obj)
                      (K : list go_aml_Object -> gres B) (M : Tree -> outcome C),
  (forall o, G (tr_obj o) = tr_obj (g o)) ->
  (forall t', t' = upd t p g -> set_f_ObjectTree_objPool (tr_tree t) (pool_of t') = tr_tree t' ->
              K (pool_of t') = lift f (M t')) ->
  match gderef (pool_of t) (Some p) with None => GPanic | Some x =>
  match gpstore (pool_of t) (Some p) (G x) with None => GPanic | Some y => K y end end = lift f (bind (wr t p g) M).
Proof.
  intros t p G g K M HG H. rewrite wr_upd, gderef_tr.
  destruct (deref t p) as [o| |] eqn:D; [ | reflexivity | destruct (deref_not_fuel _ _ D)].
  rewrite HG, (gpstore_tr _ _ _ _ D). apply H; [reflexivity | apply set_pool_upd].
Qed.

(** [ObjectAt(i)] followed by a dereference of its result *)
Lemma sim_at : forall (t : Tree) i (K : go_aml_ObjectTree -> option N -> gres B) (M : N -> outcome C),
  (forall q, K (tr_tree t) (Some q) = lift f (M q)) ->
  K (tr_tree t) None = GPanic ->
  match go_aml_ObjectTree_ObjectAt (tr_tree t) i with GPanic => GPanic | GFuel => GFuel | GOk (v, q) => K v q end
  = lift f (bind (ObjectAt_deref t i) M).
Proof.
  intros t i K M H1 H2. rewrite ObjectAt_is_translation. unfold ObjectAt_deref.
  destruct (ObjectAt t i); [apply H1 | exact H2].
Qed.

(** an [if] statement without jumps is translated as a join: the branches yield the state, the rest follows for
    EVERY state, so the case distinctions of successive statements add up instead of multiplying *)
Lemma sim_join : forall {S S'} (h : S' -> S) (X : gres S) (m : outcome S') (K : S -> gres B) (M : S' -> outcome C),
  X = lift h m ->
  (forall s, K (h s) = lift f (M s)) ->
  match X with GOk st => K st | GPanic => GPanic | GFuel => GFuel end = lift f (bind m M).
Proof. intros S S' h X m K M -> H. destruct m; [apply H | reflexivity..]. Qed.

End Steps.

Lemma sim_wr_end : forall {V B} (t : ObjectTree V) p (G : go_aml_Object -> go_aml_Object) g
                          (K : list go_aml_Object -> gres B) (h : ObjectTree V -> B),
  (forall o, G (tr_obj o) = tr_obj (g o)) ->
  (forall t', set_f_ObjectTree_objPool (tr_tree t) (f_ObjectTree_objPool (tr_tree t')) = tr_tree t' ->
              K (f_ObjectTree_objPool (tr_tree t')) = GOk (h t')) ->
  match gderef (f_ObjectTree_objPool (tr_tree t)) (Some p) with None => GPanic | Some x =>
  match gpstore (f_ObjectTree_objPool (tr_tree t)) (Some p) (G x) with None => GPanic | Some y => K y end end
  = lift h (wr t p g).
Proof.
  intros V B t p G g K h HG H. replace (wr t p g) with (bind (wr t p g) Ok) by now destruct (wr t p g).
  apply sim_wr; [exact HG | intros t' _; apply H].
Qed.

(** two reads may be taken in either order: a failure of either is the same panic *)
Lemma bind_swap : forall {A B C} (a : outcome A) (b : outcome B) (M : A -> B -> outcome C),
  a <> OutOfFuel -> b <> OutOfFuel ->
  bind a (fun x => bind b (M x)) = bind b (fun y => bind a (fun x => M x y)).
Proof. intros A B C [x| |] [y| |] M Ha Hb; congruence || reflexivity. Qed.

Lemma rd_not_fuel : forall {V} (t : ObjectTree V) p fld, rd t p fld <> OutOfFuel.
Proof. intros. unfold rd. pose proof (deref_not_fuel t p). destruct (deref t p); cbn; congruence. Qed.

Lemma ObjectAt_deref_not_fuel : forall {V} (t : ObjectTree V) i, ObjectAt_deref t i <> OutOfFuel.
Proof. intros. unfold ObjectAt_deref. destruct (ObjectAt t i); discriminate. Qed.

Ltac fields :=
  cbn [tr_obj f_Object_opcode f_Object_infoIndex f_Object_index f_Object_parentIndex f_Object_prevSiblingIndex
       f_Object_nextSiblingIndex f_Object_firstArgIndex f_Object_lastArgIndex].

Section Theorems.
Context {V : Type}.
Notation Obj := (Object V).
Notation Tree := (ObjectTree V).

(** the oracle that stands for pOpcodeTableIndex in the translation of newObject: the model's own function
    (Aml/TreeTransO.v ties it to the translation of parser_opcode_table.go) *)
Definition table_oracle (opc : N) (b : bool) : option N :=
  match pOpcodeTableIndex opc b with Ok v => Some v | _ => None end.

Lemma pOpcodeTableIndex_not_fuel : forall opc b, pOpcodeTableIndex opc b <> OutOfFuel.
Proof.
  intros. unfold pOpcodeTableIndex. destruct (opc <=? 255).
  - destruct (nth_error tree_opcodeMap (N.to_nat opc)); discriminate.
  - destruct (nth_error tree_extendedOpcodeMap (N.to_nat (opc - 255))); [|discriminate].
    destruct ((n =? tree_badOpcode) && b); discriminate.
Qed.

Lemma tr_tree_app : forall (t : Tree) x,
  set_f_ObjectTree_objPool (tr_tree t) (gpappend (f_ObjectTree_objPool (tr_tree t)) (tr_obj x)) =
  tr_tree (mkTree (t_pool t ++ [x]) (t_free t)).
Proof. intros. unfold tr_tree, gpappend, set_f_ObjectTree_objPool. cbn. now rewrite map_app. Qed.

Theorem newObject_is_translation : forall (t : Tree) (opcode th : N),
  go_aml_ObjectTree_newObject (tr_tree t) opcode th table_oracle =
  lift (fun '(t', p) => (tr_tree t', Some p)) (newObject t opcode th).
Proof.
  intros. unfold go_aml_ObjectTree_newObject, newObject, InvalidIndex.
  apply (sim_join _ (fun '(t', p) => (tr_tree t', Some p))).
  { change (f_ObjectTree_freeListHeadIndex (tr_tree t)) with (t_free t).
    destruct (t_free t =? tree_InvalidIndex); cbn [negb].
    - unfold gpnewptr. rewrite glenA_tr.
      change (set_f_Object_index _ _) with (tr_obj (@blank_object V (pool_len t))).
      now rewrite tr_tree_app.
    - rewrite gpoolat_tr. unfold bind. destruct (deref t (t_free t)) as [o| |] eqn:D;
        [now rewrite (gload D) | reflexivity | destruct (deref_not_fuel _ _ D)]. }
  clear; intros [t p]. cbv beta iota. unfold table_oracle.
  destruct (pOpcodeTableIndex opcode true) as [info| |] eqn:PI; cbn [bind].
  - rewrite init_object_steps.
    do 10 (apply sim_wr; [reflexivity|]; intros ? _ ->). reflexivity.
  - destruct (gderef _ _); [destruct (gpstore _ _ _)|]; reflexivity.
  - destruct (pOpcodeTableIndex_not_fuel _ _ PI).
Qed.

Theorem newNamedObject_is_translation : forall (t : Tree) (opcode th : N) (nm : Name),
  go_aml_ObjectTree_newNamedObject (tr_tree t) opcode th (name_bytes nm) table_oracle =
  lift (fun '(t', p) => (tr_tree t', Some p)) (newNamedObject t opcode th nm).
Proof.
  intros. unfold go_aml_ObjectTree_newNamedObject, newNamedObject.
  rewrite newObject_is_translation.
  destruct (newObject t opcode th) as [[t1 p]| |]; [|reflexivity..]. cbn [lift bind].
  apply sim_wr; [reflexivity|]; intros ? _ ->. reflexivity.
Qed.

Theorem append_is_translation : forall (t : Tree) (obj arg : N),
  go_aml_ObjectTree_append (tr_tree t) (Some obj) (Some arg) = lift (fun t' => (tr_tree t', tt)) (append t obj arg).
Proof.
  intros. unfold go_aml_ObjectTree_append, append, InvalidIndex.
  apply sim_rd; intros oo _.
  apply sim_wr; [reflexivity|]; intros t1 _ ->.
  rewrite bind_swap by apply rd_not_fuel.
  apply sim_rd; intros oo1 Do. fields.
  destruct (o_last oo1 =? tree_InvalidIndex).
  - apply sim_rd; intros oa Da.
    apply sim_wr; [reflexivity|]; intros t2 E2 ->.
    apply gload_rd with (fld := o_index) (v := o_index oa).
    { rewrite E2, rd_upd_frame by reflexivity. apply (rd_of_deref Da). }
    intros oa2 <-.
    apply sim_wr_end; [reflexivity | now intros ? ->].
  - rewrite (gload Do). fields.
    rewrite bind_swap by (apply rd_not_fuel || apply ObjectAt_deref_not_fuel).
    apply sim_at. 2: { destruct (gderef _ (Some arg)); reflexivity. }
    intros la. apply sim_rd; intros oa Da.
    apply sim_wr; [reflexivity|]; intros t2 E2 ->.
    apply sim_rd; intros ol _.
    apply sim_wr; [reflexivity|]; intros t3 E3 ->.
    apply sim_wr; [reflexivity|]; intros t4 E4 ->.
    apply gload_rd with (fld := o_index) (v := o_index oa).
    { rewrite E4, E3, E2, !rd_upd_frame by reflexivity. apply (rd_of_deref Da). }
    intros oa4 <-.
    apply sim_wr_end; [reflexivity | now intros ? ->].
Qed.

Theorem appendAfter_is_translation : forall (t : Tree) (obj arg nextTo : N),
  go_aml_ObjectTree_appendAfter (tr_tree t) (Some obj) (Some arg) (Some nextTo) =
  lift (fun t' => (tr_tree t', tt)) (appendAfter t obj arg nextTo).
Proof.
  intros. unfold go_aml_ObjectTree_appendAfter, appendAfter, InvalidIndex.
  apply sim_rd; intros on _. fields.
  destruct (o_next on =? tree_InvalidIndex).
  - rewrite append_is_translation. destruct (append t obj arg); reflexivity.
  - apply sim_rd; intros oo _.
    apply sim_wr; [reflexivity|]; intros t1 _ ->.
    apply sim_rd; intros on1 _.
    apply sim_wr; [reflexivity|]; intros t2 _ ->.
    apply sim_rd; intros on2 _.
    apply sim_wr; [reflexivity|]; intros t3 _ ->.
    apply sim_rd; intros oa Da. rewrite (gload Da), (rd_known Da).
    apply sim_at. 2: reflexivity.
    intros nx. apply sim_wr; [reflexivity|]; intros t4 _ ->.
    apply sim_rd; intros oa4 _.
    apply sim_wr_end; [reflexivity | now intros ? ->].
Qed.

Theorem detach_is_translation : forall (t : Tree) (obj arg : N),
  go_aml_ObjectTree_detach (tr_tree t) (Some obj) (Some arg) = lift (fun t' => (tr_tree t', tt)) (detach t obj arg).
Proof.
  intros. unfold go_aml_ObjectTree_detach, detach, InvalidIndex.
  apply sim_rd; intros oo _. apply sim_rd; intros oa Da. fields.
  apply (sim_join _ tr_tree).
  { destruct (o_first oo =? o_index oa); [|reflexivity].
    rewrite (gload Da), (rd_known Da). apply sim_wr_end; [reflexivity | now intros ? ->]. }
  clear; intros t.
  apply sim_rd; intros oo _. apply sim_rd; intros oa Da. fields.
  apply (sim_join _ tr_tree).
  { destruct (o_last oo =? o_index oa); [|reflexivity].
    rewrite (gload Da), (rd_known Da). apply sim_wr_end; [reflexivity | now intros ? ->]. }
  clear; intros t.
  apply sim_rd; intros oa Da. fields.
  apply (sim_join _ tr_tree).
  { destruct (o_next oa =? tree_InvalidIndex); [reflexivity|]. cbn [negb].
    rewrite !(gload Da). apply sim_at; [|reflexivity].
    intros nx. rewrite (rd_known Da). apply sim_wr_end; [reflexivity | now intros ? ->]. }
  clear; intros t.
  apply sim_rd; intros oa Da. fields.
  apply (sim_join _ tr_tree).
  { destruct (o_prev oa =? tree_InvalidIndex); [reflexivity|]. cbn [negb].
    rewrite !(gload Da). apply sim_at; [|reflexivity].
    intros pv. rewrite (rd_known Da). apply sim_wr_end; [reflexivity | now intros ? ->]. }
  clear; intros t.
  apply sim_wr; [reflexivity|]; intros t1 _ ->.
  apply sim_wr; [reflexivity|]; intros t2 _ ->.
  apply sim_wr_end; [reflexivity | now intros ? ->].
Qed.

Theorem free_is_translation : forall (t : Tree) (obj : N),
  go_aml_ObjectTree_free (tr_tree t) (Some obj) = lift (fun t' => (tr_tree t', tt)) (free t obj).
Proof.
  intros. unfold go_aml_ObjectTree_free, free, InvalidIndex.
  apply sim_rd; intros oo Do. fields.
  apply (sim_join _ tr_tree).
  { destruct (o_parent oo =? tree_InvalidIndex); [reflexivity|]. cbn [negb].
    rewrite (gload Do). apply sim_at; [|reflexivity].
    intros pp. rewrite detach_is_translation. destruct (detach t pp obj); reflexivity. }
  clear; intros t.
  apply sim_rd; intros oo Do. rewrite (gload Do), (rd_known Do). fields.
  destruct (o_first oo =? tree_InvalidIndex); [|reflexivity].
  destruct (o_last oo =? tree_InvalidIndex); [|reflexivity]. cbn [negb orb].
  apply sim_wr; [reflexivity|]; intros t1 _ ->.
  apply sim_wr; [reflexivity|]; intros t2 _ ->.
  apply sim_rd; intros o2 _. reflexivity.
Qed.

End Theorems.
