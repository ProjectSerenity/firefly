(** C11 (fragment F4): the recogniser [in_fragment_F4] of the fragment F3 extended by the other block-like named objects, its soundness [f4_item_ast],
    and [parse_encode_F4], the instance of [parse_encode_one] (ParserFragF3Final.v) for it.

    F4 = F3 + ThermalZone(SEG){...}, Processor(SEG, id, pblk address, pblk length){...} and
    PowerResource(SEG, system level, resource order){...}: single-segment names, bodies made of items of the fragment
    again (Name / Device / ThermalZone / Processor / PowerResource / Method with declaration-only body), nested to any
    depth, at the top level or inside Scope(\SEG) / Scope(SEG) directives over the predefined scopes.
    Productions added to F3: DefThermalZone, DefProcessor (ProcID ByteData, PblkAddr DWordData, PblkLen ByteData),
    DefPowerRes (SystemLevel ByteData, ResourceOrder WordData). *)
From Coq Require Import NArith List Bool.
From FF Require Import Aml.Grammar Aml.WfProgram Aml.ParserFragF0 Aml.ParserFragArgs Aml.ParserFragF1
  Aml.ParserFragF0Final Aml.ParserFragF1Final Aml.ParserFragScope Aml.ParserFragF3Final.
Import ListNotations.
Local Open Scope N_scope.

Fixpoint f4_item (a : ast) : option item :=
  let go := fix go (l : list ast) : option (list item) :=
              match l with
              | [] => Some []
              | x :: t => match f4_item x, go t with Some i, Some r => Some (i :: r) | _, _ => None end
              end in
  let blk (bk : bkind) (k : N) (nm : namestr) (fa : list N) (body : list ast) : option item :=
      match simple_name nm, go body with
      | Some seg, Some b => Some (IBlk bk k seg fa b)
      | _, _ => None
      end in
  match a with
  | AName nm (AConst op v) => match simple_name nm with Some seg => Some (IName (mkDecl seg op v)) | None => None end
  | ADevice k nm body => blk BDev k nm [] body
  | AThermal k nm body => blk BTZ k nm [] body
  | AProcessor k nm id addr len body => blk BProc k nm [id; addr; len] body
  | APowerRes k nm level order body => blk BPwr k nm [level; order] body
  | AMethod k nm fl body => blk BMeth k nm [fl] body
  | _ => None
  end.

Fixpoint f4_items (l : list ast) : option (list item) :=
  match l with
  | [] => Some []
  | x :: t => match f4_item x, f4_items t with Some i, Some r => Some (i :: r) | _, _ => None end
  end.

Definition f4_titem (a : ast) : option titem :=
  match a with
  | AScope k nm body =>
      match scope_target nm, f4_items body with
      | Some (root, d), Some b => Some (TScope k root d b)
      | _, _ => None
      end
  | _ => match f4_item a with Some it => Some (TItem it) | None => None end
  end.

Fixpoint f4_titems (l : list ast) : option (list titem) :=
  match l with
  | [] => Some []
  | x :: t => match f4_titem x, f4_titems t with Some i, Some r => Some (i :: r) | _, _ => None end
  end.

Definition in_fragment_F4 (tables : list (list ast)) : bool :=
  match tables with
  | [p] => match f4_titems p with Some _ => lenN (encode_table p) <? 0x10000000 | None => false end
  | _ => false
  end.

Lemma f4_item_ast : forall a, sound f4_item a.
Proof.
  induction a as [a IH] using ast_body_ind. intros it. destruct a; try discriminate; cbn [f4_item body_of] in *.
  1-5: apply (blk_sound f4_item); [reflexivity|exact IH].
  destruct a; try discriminate. intros E. destruct (name_sound _ _ _ E) as (seg & -> & ->). split; reflexivity.
Qed.

Theorem parse_encode_F4 : forall tables,
  wf_program tables = true -> in_fragment_F4 tables = true -> parse_encode_statement tables.
Proof. exact (parse_encode_one f4_item f4_item_ast). Qed.
