(** resolveMethodCalls never panics and keeps C13's tree relation, provided every
    pOpIntNamePathOrMethodCall object carries a []byte value (what parseNamePathOrMethodCall stores).  The walk is the one
    of ParserTotalNonNamed.v; here is what the loop does with one child ([rc_body]): rewrite a name path into a plain name
    path, a reference or a method call that takes its arguments from the following siblings. *)
From Coq Require Import NArith Arith List Bool Lia.
From Coq Require Import ZifyBool ZifyN ZifyNat.
From FF Require Import Lib.Word Gen.Consts_device_acpi_aml Gen.Consts_aml_tree Aml.Stream Aml.Lex Aml.LexProofs
  Aml.Tree Aml.Parser Aml.ParserProofs Aml.TreeSpec Aml.TreeProofs Aml.TreeProofsOps Aml.TreeProofsFind
  Aml.ParserTotalTree Aml.ParserTotalTree2 Aml.ParserTotalLex Aml.ParserTotalTable Aml.ParserTotalBase Aml.ParserTotalLeaf
  Aml.ParserTotalConn Aml.ParserTotalNonNamed.
Import ListNotations.
Local Open Scope N_scope.

(** the value of a name-path-or-method-call object is the []byte of the path *)
Definition typed (t : T) : Prop :=
  forall i o, tget t i = Some o -> o_opcode o <> opFreed -> o_opcode o = aml_pOpIntNamePathOrMethodCall ->
    exists tbl sl, o_value o = Some (VBytes tbl sl).

Lemma typed_pframe (t t' : T) : typed t -> pframe t t' -> typed t'.
Proof.
  intros Ht Hp i o' Hg Hl Hop. destruct (pframe_inv _ _ _ _ Hp Hg) as (o & Ho & E1 & _ & _ & _ & _ & _ & _ & E8).
  rewrite E8. apply (Ht i o Ho); congruence.
Qed.

Lemma typed_tset (t : T) p f : typed t ->
  (forall o, tget t p = Some o -> o_opcode (f o) <> aml_pOpIntNamePathOrMethodCall) -> typed (tset t p f).
Proof.
  intros Ht Hf i o' Hg Hl Hop. rewrite get_tset in Hg. destruct (N.eqb_spec i p) as [->|Hne].
  - destruct (tget t p) as [o|] eqn:E; cbn [option_map] in Hg; [|discriminate]. inversion Hg; subst o'.
    exfalso. apply (Hf o eq_refl). exact Hop.
  - apply (Ht i o' Hg Hl Hop).
Qed.

Lemma TI_tset s g p f :
  TI s g ->
  (forall o, tget (p_tree s) p = Some o -> lk_eq o (f o)) ->
  (forall o, tget (p_tree s) p = Some o -> o_opcode o <> opFreed -> opInfo (o_infoIndex (f o)) <> None) ->
  (forall o, value_ok (p_tables s) (o_value o) -> value_ok (p_tables s) (o_value (f o))) ->
  TI (with_tree s (tset (p_tree s) p f)) g.
Proof.
  intros [A B C] Hlk Hinf Hval. constructor; pcbn.
  - apply R_tset_lk; auto.
  - apply info_valid_tset; auto. intros o Ho. destruct (Hlk o Ho) as (E & _). exact E.
  - unfold pool_ok, tset. cbn [t_pool]. apply list_upd_Forall; auto.
Qed.

(** the three kinds of write of resolveMethodCalls on the live object [p] *)
Lemma wp_set_opcode P p c s g (Q : unit -> pstate -> Prop) :
  TI s g -> glive g p -> newok c ->
  (TI (with_tree s (tset (p_tree s) p (set_opcode c))) g -> Q tt (with_tree s (tset (p_tree s) p (set_opcode c)))) ->
  wp P (wrf p (set_opcode c)) s Q.
Proof.
  intros H Hl (Hnf & _) K. destruct (TI_live_get _ _ _ H Hl) as (o & Ho & Hlo).
  apply wp_wrf; [eauto|]. apply K. apply TI_tset; auto.
  - intros o' Ho'. assert (o' = o) by congruence. subst o'. unfold lk_eq. cbn [o_opcode o_index o_parent o_prev o_next o_first o_last set_opcode].
    repeat split; auto; intros; contradiction.
  - intros o' Ho' Hlo'. cbn [o_infoIndex set_opcode]. apply (ti_info _ _ H _ _ Ho' Hlo').
Qed.

Lemma wp_set_info P p idx s g (Q : unit -> pstate -> Prop) :
  TI s g -> glive g p -> opInfo idx <> None ->
  (TI (with_tree s (tset (p_tree s) p (set_infoIndex idx))) g -> Q tt (with_tree s (tset (p_tree s) p (set_infoIndex idx)))) ->
  wp P (wrf p (set_infoIndex idx)) s Q.
Proof.
  intros H Hl Hidx K. destruct (TI_live_get _ _ _ H Hl) as (o & Ho & Hlo).
  apply wp_wrf; [eauto|]. apply K. apply TI_tset; auto.
  intros o' Ho'. unfold lk_eq. cbn [o_opcode o_index o_parent o_prev o_next o_first o_last set_infoIndex]. repeat split; auto.
Qed.

Lemma wp_set_vidx P p i s g (Q : unit -> pstate -> Prop) :
  TI s g -> glive g p ->
  (TI (with_tree s (tset (p_tree s) p (set_value (Some (VIdx i))))) g -> Q tt (with_tree s (tset (p_tree s) p (set_value (Some (VIdx i)))))) ->
  wp P (wrf p (set_value (Some (VIdx i)))) s Q.
Proof.
  intros H Hl K. destruct (TI_live_get _ _ _ H Hl) as (o & Ho & Hlo).
  apply wp_wrf; [eauto|]. apply K. apply TI_tset; auto.
  - intros o' Ho'. unfold lk_eq. cbn [o_opcode o_index o_parent o_prev o_next o_first o_last set_value]. repeat split; auto.
  - intros o' Ho' Hlo'. cbn [o_infoIndex set_value]. apply (ti_info _ _ H _ _ Ho' Hlo').
  - intros o' _. exact I.
Qed.

Lemma list_upd_twice {A} (l : list A) n f h : list_upd (list_upd l n f) n h = list_upd l n (fun o => h (f o)).
Proof. revert n. induction l as [|a l IH]; intros n; destruct n; cbn [list_upd]; try reflexivity. rewrite IH. reflexivity. Qed.
Lemma tset_twice (t : T) p f h : tset (tset t p f) p h = tset t p (fun o => h (f o)).
Proof. unfold tset. cbn [t_pool t_free]. rewrite list_upd_twice. reflexivity. Qed.

(** ---- the walk ---- *)
Definition Kupd (K : T -> ghost -> Prop) : Prop := forall (t : T) g p o (f : Obj -> Obj),
  R t g -> K t g -> tget t p = Some o -> o_opcode o = aml_pOpIntNamePathOrMethodCall -> o_opcode (f o) <> aml_pOpMethod ->
  o_opcode (f o) <> aml_pOpIntNamePathOrMethodCall -> K (tset t p f) g.

Section Inv.
(** an invariant [K] of the pass: it survives the moves of attachSiblingsAsArgs (as in ParserTotalNonNamed) and the rewriting of a
    name-path-or-method-call object into something that is not a Method *)
Variable K : T -> ghost -> Prop.
Hypothesis K_move : Kmove K.
Hypothesis K_upd : Kupd K.

Definition IvRC (s : pstate) (g : ghost) : Prop := typed (p_tree s) /\ glive g 0 /\ K (p_tree s) g.
Definition RelT (s s' : pstate) : Prop := True.

Definition RC_spec (fuel : nat) : Prop := W_spec IvRC RelT (resolveMethodCalls fuel) fuel.
Definition RCloop_spec (fuel : nat) : Prop := L_spec IvRC RelT (resolveCalls_loop fuel) fuel.

Lemma nk_calls : newok aml_pOpIntNamePath /\ newok aml_pOpIntMethodCall /\ newok aml_pOpIntResolvedNamePath /\
  aml_pOpIntNamePath <> aml_pOpIntNamePathOrMethodCall /\ aml_pOpIntMethodCall <> aml_pOpIntNamePathOrMethodCall /\
  aml_pOpIntResolvedNamePath <> aml_pOpIntNamePathOrMethodCall.
Proof. repeat split; try (apply newokb_sound; reflexivity); try discriminate; apply (proj1 (newokb_sound _ eq_refl)). Qed.

Definition rc_body (fuel : nat) (obj argObj : N) (continue : M pres) : M pres :=
  mlet ao <~ rdo argObj ;;
  mlet h <~ Parser.get p_handle ;;
  if negb (o_opcode ao =? aml_pOpIntNamePathOrMethodCall) || negb (o_tableHandle ao =? h) then
    (mlet r <~ connectNonNamedObjArg fuel obj argObj ;;
     if pres_eqb r RFailed then ret RFailed else continue)
  else
  match o_value ao with
  | Some (VBytes tbl sl) =>
    mlet expr <~ bytesOf tbl sl ;;
    mlet targetIndex <~ tq (fun t => Find t (o_parent ao) expr) ;;
    if targetIndex =? InvalidIndex then
      wrf argObj (set_opcode aml_pOpIntNamePath) ;;;
      mlet idx <~ tableIndex aml_pOpIntNamePath true ;;
      wrf argObj (set_infoIndex idx) ;;;
      continue
    else
      mlet resolvedObj <~ objectAt' targetIndex ;;
      mlet ro <~ rdo resolvedObj ;;
      if o_opcode ro =? aml_pOpMethod then
        wrf argObj (set_opcode aml_pOpIntMethodCall) ;;;
        mlet idx <~ tableIndex aml_pOpIntMethodCall true ;;
        wrf argObj (set_infoIndex idx) ;;;
        wrf argObj (set_value (Some (VIdx (o_index ro)))) ;;;
        mlet flagsObj <~ tq (fun t => ArgAt t (Some resolvedObj) 1) ;;
        match flagsObj with
        | None => ret RFailed
        | Some fo =>
          mlet fobj <~ rdo fo ;;
          match o_value fobj with
          | Some (VNum argCnt) =>
            mlet r <~ attachSiblingsAsArgs fuel obj argObj (N.land argCnt 7) true ;;
            if negb (pres_eqb r ROk) then ret RFailed else continue
          | _ => ret RFailed
          end
        end
      else
        wrf argObj (set_opcode aml_pOpIntResolvedNamePath) ;;;
        mlet idx <~ tableIndex aml_pOpIntResolvedNamePath true ;;
        wrf argObj (set_infoIndex idx) ;;;
        wrf argObj (set_value (Some (VIdx (o_index ro)))) ;;;
        continue
  | _ => panic
  end.

Lemma rc_body_spec fuel : B_spec IvRC RelT fuel (rc_body fuel).
Proof.
  intros obj argIndex k s1 g1 l' r1 GP m1 m2 P Q H1 Hl1 Hk1 Hctx1 (Hty1 & H01 & HK1) Hf HQ. unfold rc_body.
  pose proof (ti_R _ _ H1) as HR1.
  assert (Hstay : forall s2, TI s2 g1 -> typed (p_tree s2) -> K (p_tree s2) g1 -> wp P k s2 Q /\ forall res, Q res s2).
  { intros s2 H2 Hty2 HK2. apply (HQ s2 g1 r1 m2); auto.
    - split; [exact H2|]. split; [apply reloc_refl|]. split; [exact Hctx1|]. split; [auto|]. split; [exact I|]. split; auto.
    - intros q _ _ _. reflexivity. }
  destruct (sibling_links _ _ HR1 obj l' argIndex r1 Hl1 Hk1) as (ao & Hao & Hlao & Hapar & _ & _ & _).
  assert (Hla1 : glive g1 argIndex) by (apply (R_live_glive _ _ HR1); exists ao; auto).
  apply wp_bind. apply wp_rdo. exists ao. split; [exact Hao|].
  apply wp_bind, wp_get.
  destruct (negb (o_opcode ao =? aml_pOpIntNamePathOrMethodCall) || negb (o_tableHandle ao =? p_handle s1)) eqn:Ecall.
  { (* not a call candidate of this table: connectNonNamedObjArg *)
    apply wp_bind. eapply wp_weaken; [apply (arg_spec K K_move fuel obj argIndex s1 g1 l' r1 GP m1 m2 H1 Hl1 Hk1 Hctx1 HK1)|exact Hf|].
    intros r0 s2 (g2 & r2 & m2b & (H2 & Rl2 & Hctx2 & Hroots2 & Hpf2 & HK2) & Hk2 & Hlen2 & Hlenm2 & HF2).
    destruct (HQ s2 g2 r2 m2b) as (Wk & Qr); auto.
    { split; [exact H2|]. split; [exact Rl2|]. split; [exact Hctx2|]. split; [exact Hroots2|]. split; [exact I|].
      split; [eapply typed_pframe; eauto|]. split; [apply (reloc_glive _ _ _ 0 Rl2); exact H01|exact HK2]. }
    destruct (pres_eqb r0 RFailed); [apply wp_ret; apply Qr|exact Wk]. }
  (* a name path that may be a method call *)
  apply orb_false_elim in Ecall. destruct Ecall as (Eop & _). apply negb_false_iff in Eop. apply N.eqb_eq in Eop.
  destruct (Hty1 _ _ Hao Hlao Eop) as (tbl & sl & Hval). rewrite Hval.
  assert (Hsl : slice_ok (p_tables s1) tbl sl).
  { pose proof (pool_ok_get _ _ _ _ (ti_pool _ _ H1) Hao) as Hv. rewrite Hval in Hv. exact Hv. }
  destruct (slice_bytes_ok s1 tbl sl Hsl) as (expr & Eb & _).
  apply wp_bind. eapply wp_bytesOf; [exact Eb|].
  assert (Hlive_obj : live (p_tree s1) obj) by (apply (R_live_glive _ _ HR1); exact Hl1).
  assert (Hlive_0 : live (p_tree s1) 0) by (apply (R_live_glive _ _ HR1); exact H01).
  rewrite Hapar.
  pose proof (Find_spec _ _ HR1 obj expr Hlive_obj Hlive_0) as Efind.
  apply wp_bind. eapply wp_tq; [exact Efind|].
  pose proof (Find_result_live _ _ HR1 obj expr _ Hlive_obj Hlive_0 Efind) as Hres.
  set (target := enc_result (resolve g1 (name_at (p_tree s1)) obj expr)) in *.
  destruct nk_calls as (NK1 & NK2 & NK3 & NE1 & NE2 & NE3).
  destruct (N.eqb_spec target InvalidIndex) as [Et|Et].
  { (* not found: a plain name path *)
    apply wp_bind. eapply (wp_set_opcode _ argIndex _ s1 g1); [exact H1|exact Hla1|exact NK1|]. intros H2.
    destruct (nk_info _ NK1) as (idx & Hidx & Hinf).
    apply wp_bind. eapply wp_tableIndex; [exact Hidx|].
    apply wp_bind. eapply (wp_set_info _ argIndex idx _ g1); [exact H2|exact Hla1|exact Hinf|]. intros H3.
    apply Hstay; [exact H3| |].
    - apply typed_tset; [apply typed_tset; [exact Hty1|intros o _; exact NE1]|].
      intros o Ho. cbn [o_opcode set_infoIndex]. pcbn_in Ho. rewrite get_tset, N.eqb_refl, Hao in Ho. cbn [option_map] in Ho.
      inversion Ho. cbn [o_opcode set_opcode]. exact NE1.
    - pcbn. rewrite tset_twice. apply (K_upd _ g1 argIndex ao _ HR1 HK1 Hao Eop); cbn [o_opcode set_infoIndex set_opcode]; [vm_compute; discriminate|exact NE1]. }
  destruct Hres as [?|Hlive_t]; [contradiction|].
  assert (Hlt1 : glive g1 target) by (apply (R_live_glive _ _ HR1); exact Hlive_t).
  apply wp_bind. apply wp_objectAt'; [apply (TI_ObjectAt _ _ _ H1 Hlt1)|].
  destruct (TI_live_get _ _ _ H1 Hlt1) as (ro & Hro & Hlro).
  apply wp_bind. apply wp_rdo. exists ro. split; [exact Hro|].
  destruct (o_opcode ro =? aml_pOpMethod).
  - (* a method call *)
    apply wp_bind. eapply (wp_set_opcode _ argIndex _ s1 g1); [exact H1|exact Hla1|exact NK2|]. intros H2.
    destruct (nk_info _ NK2) as (idx & Hidx & Hinf).
    apply wp_bind. eapply wp_tableIndex; [exact Hidx|].
    apply wp_bind. eapply (wp_set_info _ argIndex idx _ g1); [exact H2|exact Hla1|exact Hinf|]. intros H3.
    apply wp_bind. eapply (wp_set_vidx _ argIndex _ _ g1); [exact H3|exact Hla1|]. intros H4.
    match type of H4 with TI ?st _ => set (s4 := st) in * end.
    assert (Hty4 : typed (p_tree s4)).
    { unfold s4. pcbn. apply typed_tset; [apply typed_tset; [apply typed_tset; [exact Hty1|intros o _; exact NE2]|]|].
      - intros o Ho. cbn [o_opcode set_infoIndex]. rewrite get_tset, N.eqb_refl, Hao in Ho. cbn [option_map] in Ho. inversion Ho. exact NE2.
      - intros o Ho. cbn [o_opcode set_value]. rewrite !get_tset, !N.eqb_refl, Hao in Ho. cbn [option_map] in Ho. inversion Ho. exact NE2. }
    assert (HK4 : K (p_tree s4) g1).
    { unfold s4. pcbn. rewrite !tset_twice. apply (K_upd _ g1 argIndex ao _ HR1 HK1 Hao Eop); cbn [o_opcode set_infoIndex set_opcode set_value]; [vm_compute; discriminate|exact NE2]. }
    assert (Hend4 : forall (rr : pres), wp P (ret rr) s4 Q).
    { intros rr. apply wp_ret. apply (Hstay s4 H4 Hty4 HK4). }
    pose proof (ti_R _ _ H4) as HR4.
    assert (Hlive_t4 : live (p_tree s4) target) by (apply (R_live_glive _ _ HR4); exact Hlt1).
    apply wp_bind. eapply wp_tq; [apply (ArgAt_spec _ _ HR4 target 1 Hlive_t4)|].
    destruct (nth_error (kids g1 target) (N.to_nat 1)) as [fo|] eqn:Efo.
    2:{ apply Hend4. }
    assert (Hlfo : glive g1 fo) by (apply ((R_gwf _ _ HR4) target fo); eapply nth_error_In; eauto).
    destruct (TI_live_get _ _ _ H4 Hlfo) as (fobj & Hfobj & _).
    apply wp_bind. apply wp_rdo. exists fobj. split; [exact Hfobj|].
    destruct (o_value fobj) as [[argCnt|? ?|?|?]|]; try (apply Hend4; fail).
    apply wp_bind. unfold attachSiblingsAsArgs.
    destruct (sibling_links _ _ HR4 obj l' argIndex r1 Hl1 Hk1) as (ao4 & Hao4 & _ & _ & _ & Hnx4 & _).
    apply wp_bind. apply wp_rdf. exists ao4. split; [exact Hao4|]. rewrite Hnx4.
    eapply wp_weaken; [apply (attach2_spec K K_move fuel obj argIndex (hd InvalidIndex r1) _ s4 g1 l' r1 GP m1 m2 H4 Hl1 Hk1 Hctx1)|exact Hf|].
    + destruct r1 as [|y r1']; cbn [sib_ok hd]; [left|]; reflexivity.
    + exact HK4.
    + exists ao4. split; [exact Hao4|]. unfold s4 in Hao4. pcbn_in Hao4. rewrite !get_tset, !N.eqb_refl, Hao in Hao4. cbn [option_map] in Hao4.
      inversion Hao4. cbn [o_infoIndex set_value set_infoIndex]. intros E. rewrite E in Hidx. vm_compute in Hidx. discriminate.
    + intros r0 s5 (g5 & r5 & m2b & H5 & Rl5 & Hk5 & Hctx5 & Hroots5 & Hpf5 & HK5 & Hlen5 & Hlenm5 & HF5).
      destruct (HQ s5 g5 r5 m2b) as (Wk & Qr); auto.
      { split; [exact H5|]. split; [exact Rl5|]. split; [exact Hctx5|]. split; [exact Hroots5|]. split; [exact I|].
        split; [eapply typed_pframe; eauto|]. split; [apply (reloc_glive _ _ _ 0 Rl5); exact H01|exact HK5]. }
      destruct (negb (pres_eqb r0 ROk)); [apply wp_ret; apply Qr|exact Wk].
  - (* a reference to another object *)
    apply wp_bind. eapply (wp_set_opcode _ argIndex _ s1 g1); [exact H1|exact Hla1|exact NK3|]. intros H2.
    destruct (nk_info _ NK3) as (idx & Hidx & Hinf).
    apply wp_bind. eapply wp_tableIndex; [exact Hidx|].
    apply wp_bind. eapply (wp_set_info _ argIndex idx _ g1); [exact H2|exact Hla1|exact Hinf|]. intros H3.
    apply wp_bind. eapply (wp_set_vidx _ argIndex _ _ g1); [exact H3|exact Hla1|]. intros H4.
    apply Hstay; [exact H4| |].
    + pcbn. apply typed_tset; [apply typed_tset; [apply typed_tset; [exact Hty1|intros o _; exact NE3]|]|].
      * intros o Ho. cbn [o_opcode set_infoIndex]. rewrite get_tset, N.eqb_refl, Hao in Ho. cbn [option_map] in Ho. inversion Ho. exact NE3.
      * intros o Ho. cbn [o_opcode set_value]. rewrite !get_tset, !N.eqb_refl, Hao in Ho. cbn [option_map] in Ho. inversion Ho. exact NE3.
    + pcbn. rewrite !tset_twice. apply (K_upd _ g1 argIndex ao _ HR1 HK1 Hao Eop); cbn [o_opcode set_infoIndex set_opcode set_value]; [vm_compute; discriminate|exact NE3].
Qed.

Lemma calls_all : forall fuel, RC_spec fuel /\ RCloop_spec fuel.
Proof.
  induction fuel as [|fuel (IHc & IHl)].
  - split; intro; intros; cbn [resolveMethodCalls resolveCalls_loop]; apply wp_outOfFuel.
    + intros n Hn. pose proof (sz_pos _ _ _ Hn). lia.
    + intros m Hm. lia.
  - split.
    + intros x s g GP m1 m2. cbn [resolveMethodCalls].
      apply (walk_step IvRC RelT (fun _ => I) (fun _ _ _ _ _ => I) (resolveMethodCalls fuel) _ fuel IHl).
    + intros obj argIndex s g GP m1 m2 l r. cbn [resolveCalls_loop].
      apply (loop_step IvRC RelT (fun _ => I) (fun _ _ _ _ _ => I) _ _ fuel (rc_body fuel) (rc_body_spec fuel) IHc IHl).
Qed.
End Inv.

Lemma KT_upd : Kupd KT.
Proof. unfold Kupd. intros. exact I. Qed.

Theorem resolveMethodCalls_keeps (K : T -> ghost -> Prop) : Kmove K -> Kupd K -> forall fuel s g,
  TI s g -> typed (p_tree s) -> glive g 0 -> groot g 0 -> K (p_tree s) g ->
  match resolveMethodCalls fuel 0 s with
  | Ok (_, s') => exists g', TI s' g' /\ typed (p_tree s') /\ glive g' 0 /\ groot g' 0 /\ K (p_tree s') g'
  | Panic => False
  | OutOfFuel => True
  end.
Proof.
  intros K_move K_upd fuel s g H Hty H0 Hroot HK.
  pose proof (proj1 (calls_all K K_move K_upd fuel) 0 s g None [] [] H H0 (conj Hroot eq_refl) (conj Hty (conj H0 HK))) as W. unfold wp in W.
  destruct (resolveMethodCalls fuel 0 s) as [[r s']| |]; auto.
  destruct W as (g' & m2' & (A & Rl & _ & Hroots & _ & D & H0' & E) & _). exists g'. auto 6.
Qed.

Lemma root_only_example op : newok op ->
  exists (s : pstate) (g : ghost) (po : Obj),
    R (p_tree s) g /\ info_valid (p_tree s) /\ pool_ok (p_tables s) (p_tree s) /\ glive g 0 /\ groot g 0 /\
    o_opcode po = op /\ forall i o, tget (p_tree s) i = Some o <-> i = 0 /\ o = po.
Proof.
  intros (Hnf & Hmaps & i0 & Hi0 & Hinfo).
  destruct (newObject_R (@NewObjectTree value) ghost0 op 0 R_empty) as (t' & p & E & HR' & _ & Hp).
  { split; auto. split; auto. intros _. cbn. pose proof Inv_val. lia. }
  destruct (newObject_shape _ _ _ _ _ E) as ((po & Hpo & Hop & Hidx & _ & Hval) & _ & Hbw & Hl1 & _).
  destruct (new_slot_fresh (@NewObjectTree value) ghost0 op 0 R_empty) as (_ & F2 & _ & F4).
  cbn [g_free ghost0] in Hp. cbn [NewObjectTree t_pool length] in Hp, Hl1. change (N.of_nat 0) with 0 in Hp. subst p.
  assert (Hall : forall i o, tget t' i = Some o -> i = 0 /\ o = po).
  { intros i o Hg. destruct (N.eqb_spec i 0) as [->|Hne]; [split; congruence|].
    specialize (Hbw i o Hne Hg). unfold TreeSpec.get in Hbw. cbn [NewObjectTree t_pool] in Hbw. destruct (N.to_nat i); discriminate. }
  exists (mkP (init_reader [] 0) t' [] [] 0 0 0 0 false 1 []), (astep ghost0 (OpNew op 0)), po.
  cbn [p_tree p_tables].
  split; [exact HR'|]. split; [|split; [|split; [exact F2|split; [exact F4|split; [exact Hop|]]]]].
  - intros i o Hg Hl. destruct (Hall i o Hg) as (-> & ->). rewrite pOpcodeTableIndex_eq, Hi0 in Hidx. inversion Hidx as [Hii].
    rewrite <- Hii. exact Hinfo.
  - unfold pool_ok. rewrite Forall_forall. intros o Hin. destruct (In_nth_error _ _ Hin) as (n & Hn).
    assert (Hg : tget t' (N.of_nat n) = Some o) by (unfold TreeSpec.get; rewrite Nat2N.id; exact Hn).
    destruct (Hall _ _ Hg) as (_ & ->). rewrite Hval. exact I.
  - intros i o. split; [apply Hall|intros (-> & ->); exact Hpo].
Qed.

(** the hypotheses are satisfiable: a state whose pool holds just a root scope *)
Lemma last_passes_hyps_example :
  exists (s : pstate) (g : ghost),
    R (p_tree s) g /\ info_valid (p_tree s) /\ pool_ok (p_tables s) (p_tree s) /\ typed (p_tree s) /\ glive g 0 /\ groot g 0.
Proof.
  destruct (root_only_example opScope) as (s & g & po & A & B & C & D & E & Hop & Hall); [apply newokb_sound; reflexivity|].
  exists s, g. repeat (split; [assumption|]). split; [|auto].
  intros i o Hg Hl Hop'. apply Hall in Hg. destruct Hg as (_ & ->). rewrite Hop in Hop'. discriminate Hop'.
Qed.
