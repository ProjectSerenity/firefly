(** C11 (two-table fragment T2): the recogniser [in_fragment_T2] of programs of TWO tables, and [parse_encode_T2], the instance
    of [parse_encode_two] (ParserFragF3Final.v) for the items of F5.

    The fragment: the first table is a list of items of F5 (Name / Device / ThermalZone / Processor / PowerResource /
    Method with declaration-only body / Mutex / Event / OperationRegion with constant arguments, nested) without Scope
    directives; the second table is a table of F5: items of F5 and, at its top level, Scope(\SEG) / Scope(SEG)
    directives over the predefined scopes.  Each encoded table is smaller than 256 MiB.
    The second table is parsed with handle 2 into the tree the first one left: its first pass appends to the pool and to
    the root, connectNamedObjArgs / mergeScopeDirectives / relocateNamedObjects and the later passes walk the objects of
    the first table as well and leave them alone (they belong to another table handle), the Scope directives of the
    second table move their contents below the predefined scopes, and the namespace is the union of both tables. *)
From Coq Require Import NArith List Bool.
From FF Require Import Aml.Grammar Aml.WfProgram Aml.ParserFragF0 Aml.ParserFragArgs Aml.ParserFragF1
  Aml.ParserFragF1Final Aml.ParserFragScope Aml.ParserFragF3Final Aml.ParserFragF5Final.
Import ListNotations.
Local Open Scope N_scope.

Definition in_fragment_T2 (tables : list (list ast)) : bool :=
  match tables with
  | [p1; p2] =>
      match f5_items p1, f5_titems p2 with
      | Some _, Some _ => (lenN (encode_table p1) <? 0x10000000) && (lenN (encode_table p2) <? 0x10000000)
      | _, _ => false
      end
  | _ => false
  end.

Theorem parse_encode_T2 : forall tables,
  wf_program tables = true -> in_fragment_T2 tables = true -> parse_encode_statement tables.
Proof. exact (parse_encode_two f5_item f5_item_ast). Qed.
