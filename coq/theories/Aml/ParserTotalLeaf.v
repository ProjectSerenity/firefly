(** The first-pass functions that do not recurse - parseByteList, parseSimpleArg and the pieces of
    parseFieldElements (the loop itself is in ParserTotalLeaf2.v) - never panic, keep the invariant and pay for the
    objects they create. *)
From Coq Require Import NArith Arith List Bool Lia.
From Coq Require Import ZifyBool ZifyN ZifyNat.
From FF Require Import Lib.Word Gen.Consts_device_acpi_aml Gen.Consts_aml_tree Aml.Stream Aml.Lex Aml.LexProofs
  Aml.Tree Aml.TreeSpec Aml.TreeProofs Aml.TreeProofsOps Aml.Parser
  Aml.ParserTotalTree Aml.ParserTotalLex Aml.ParserTotalTable Aml.ParserTotalBase.
Import ListNotations.
Local Open Scope N_scope.

Definition specm (md : bool) {A} (P : Prop) (m : M A) (s : pstate) (g : ghost) (Q : A -> pstate -> ghost -> Prop) : Prop :=
  wp P m s (fun a s' => exists g', FIm md s' g' /\ Ext s g s' g' /\ Q a s' g').
Definition spec {A} (P : Prop) (m : M A) (s : pstate) (g : ghost) (Q : A -> pstate -> ghost -> Prop) : Prop :=
  wp P m s (fun a s' => exists g', FI s' g' /\ Ext s g s' g' /\ Q a s' g').

Ltac pcbn := cbn [p_r p_tree p_scopeStack p_pkgEndStack p_streamEnd p_allBlocks p_handle p_tables
                   with_r with_tree with_scopeStack with_pkgEndStack].
Ltac pcbn_in H := cbn [p_r p_tree p_scopeStack p_pkgEndStack p_streamEnd p_allBlocks p_handle p_tables
                   with_r with_tree with_scopeStack with_pkgEndStack] in H.

(** steps that touch the reader and payload fields only *)
Definition rstep (s s' : pstate) : Prop :=
  r_len (p_r s') = r_len (p_r s) /\ r_offset (p_r s) <= r_offset (p_r s') /\
  p_scopeStack s' = p_scopeStack s /\ lp s' = lp s /\ p_pkgEndStack s' = p_pkgEndStack s.

Lemma rstep_refl s : rstep s s.
Proof. unfold rstep. repeat split; auto. lia. Qed.

Lemma rstep_trans a b c : rstep a b -> rstep b c -> rstep a c.
Proof. unfold rstep. intros (A1 & A2 & A3 & A4 & A5) (B1 & B2 & B3 & B4 & B5). repeat split; try congruence. lia. Qed.

Lemma rstep_tset s p f : rstep s (with_tree s (tset (p_tree s) p f)).
Proof. unfold rstep, lp. pcbn. rewrite tset_len. repeat split; auto. lia. Qed.

Lemma rstep_r s r1 : adv (p_r s) r1 -> rstep s (with_r s r1).
Proof. intros ((_ & E & _) & L & _). unfold rstep, lp. pcbn. repeat split; auto. Qed.

Lemma rstep_Ext s s' g : rstep s s' -> Ext s g s' g.
Proof. intros (A1 & A2 & A3 & A4 & A5). constructor; auto using gext_refl; [exists []; exact A3|rewrite A5; lia|rewrite A5; lia]. Qed.

Ltac nfreed :=
  match goal with
  | |- ?v <> opFreed => first [ assumption | apply (proj1 (newokb_sound v eq_refl)) | (eapply proj1; eassumption) ]
  end.

Ltac lk_tac :=
  unfold lk_eq; cbn [o_opcode o_index o_parent o_prev o_next o_first o_last set_opcode set_name set_amlOffset
                     set_pkgEnd set_value set_infoIndex];
  repeat split; auto; intros; try contradiction;
  match goal with
  | E : ?v = opFreed |- _ => exfalso; cut (v <> opFreed); [let HH := fresh in intros HH; exact (HH E)|nfreed]
  | _ => idtac
  end.

Ltac info_tac :=
  cbn [o_infoIndex set_opcode set_name set_amlOffset set_pkgEnd set_value set_infoIndex]; try assumption.

(** one payload write on the live object [p]; the continuation gets the new invariant *)
Ltac wwrf H Hl :=
  apply wp_bind; eapply (wrf_step _ _ _ _ _ _ H Hl);
  [ let o := fresh "o" in let Ho := fresh "Ho" in intros o Ho; lk_tac
  | let o := fresh "o" in let Ho := fresh "Ho" in let Hi := fresh "Hi" in intros o Ho Hi; info_tac
  | ].

Lemma nk_info op : newok op -> exists i, opcodeTableIndex op true = Some i /\ opInfo i <> None.
Proof. intros (_ & _ & H). exact H. Qed.

(** ---- parseByteList ---- *)
Lemma parseByteList_spec {md} P obj dataLen s g : FIm md s g -> glive g obj ->
  wp P (parseByteList obj dataLen) s (fun res s' => FIm md s' g /\ rstep s s').
Proof.
  intros H Hl. unfold parseByteList.
  apply wp_bind, wp_get.
  pose proof (fi_rok _ _ H) as Hrok. pose proof Hrok as ((W1 & W2 & W3 & W4) & Sm & Off).
  destruct ((r_pkgEnd (p_r s) <? r_offset (p_r s)) || (w32 (r_pkgEnd (p_r s) + two32 - r_offset (p_r s)) <? dataLen)) eqn:Ec.
  { apply wp_ret. split; auto using rstep_refl. }
  apply orb_false_elim in Ec. destruct Ec as [Ec1 Ec2]. apply N.ltb_ge in Ec1, Ec2.
  assert (Ew : w32 (r_pkgEnd (p_r s) + two32 - r_offset (p_r s)) = r_pkgEnd (p_r s) - r_offset (p_r s)).
  { unfold w32, two32 in *. lia. }
  rewrite Ew in Ec2.
  wwrf H Hl. intros o1 Hg1 Hlo1 H1.
  destruct (nk_info _ (newokb_sound aml_pOpIntByteList eq_refl)) as (idx & Hidx & Hinf).
  apply wp_bind. eapply wp_tableIndex; [exact Hidx|].
  wwrf H1 Hl. intros o2 Hg2 Hlo2 H2.
  assert (Hdp : exists x, dataPtr (p_r s) = Ok x).
  { unfold dataPtr. destruct (eof (p_r s)) eqn:Ee; [eauto|]. unfold eof in Ee. apply N.leb_gt in Ee.
    assert (Hlt : r_offset (p_r s) <? r_len (p_r s) = true) by (apply N.ltb_lt; lia). rewrite Hlt. eauto. }
  destruct Hdp as (ptr & Hdp).
  apply wp_bind. eapply wp_lift; [exact Hdp|].
  apply wp_bind, wp_get.
  wwrf H2 Hl. intros o3 Hg3 Hlo3 H3.
  apply wp_bind. apply wp_ru. apply wp_ret.
  assert (Eo : w32 (r_offset (p_r s) + dataLen) = r_offset (p_r s) + dataLen) by (unfold w32, two32 in *; lia).
  rewrite Eo.
  destruct (rok_setOffset (p_r s) (r_offset (p_r s) + dataLen) Hrok) as (Hrok' & Hlen').
  split.
  - apply FI_with_r; [exact H3|exact Hrok'].
  - unfold rstep, lp. pcbn. rewrite !tset_len. repeat split; auto.
    unfold setOffset. cbn [r_offset set_offset_raw].
    destruct (r_len (p_r s) <? r_offset (p_r s) + dataLen) eqn:E; [exact Off|lia].
Qed.

(** ---- parseSimpleArg ---- *)
Definition simple_num (obj op bytes : N) : M (option N * pres) :=
  wrf obj (set_opcode op) ;;;
  mlet '(v, ok) <~ lex (parseNumConstant bytes) ;;
  wrf obj (set_value (Some (VNum v))) ;;;
  mlet idx <~ tableIndex op true ;;
  wrf obj (set_infoIndex idx) ;;;
  ret (Some obj, pres_of_bool ok).

Definition simple_str (obj tbl op : N) (f : reader -> outcome (slice * bool * reader)) : M (option N * pres) :=
  wrf obj (set_opcode op) ;;;
  mlet '(v, ok) <~ lex f ;;
  wrf obj (set_value (Some (bytesValue tbl v))) ;;;
  mlet idx <~ tableIndex op true ;;
  wrf obj (set_infoIndex idx) ;;;
  ret (Some obj, pres_of_bool ok).

Lemma simple_num_spec {md} P obj op bytes s g : FIm md s g -> glive g obj -> newok op -> 1 <= bytes ->
  wp P (simple_num obj op bytes) s (fun '(a, res) s' =>
     FIm md s' g /\ rstep s s' /\ a = Some obj /\ (res = ROk -> r_offset (p_r s) < r_offset (p_r s')) /\
     exists po v, tget (p_tree s') obj = Some po /\ o_value po = Some (VNum v)).
Proof.
  intros H Hl Hnk Hb. unfold simple_num. pose proof Hnk as (Hnf & _).
  wwrf H Hl. intros o1 Hg1 Hlo1 H1.
  apply wp_bind. apply wp_num; [apply (fi_rok _ _ H1)|]. intros v ok r1 Hadv Hok.
  assert (H2 : FIm md (with_r (with_tree s (tset (p_tree s) obj (set_opcode op))) r1) g).
  { apply FI_with_r; [exact H1|]. eapply rok_adv; [apply (fi_rok _ _ H1)|exact Hadv]. }
  wwrf H2 Hl. intros o2 Hg2 Hlo2 H3.
  destruct (nk_info _ Hnk) as (idx & Hidx & Hinf).
  apply wp_bind. eapply wp_tableIndex; [exact Hidx|].
  wwrf H3 Hl. intros o3 Hg3 Hlo3 H4.
  apply wp_ret. split; [exact H4|]. split.
  { eapply rstep_trans; [apply rstep_tset|]. eapply rstep_trans; [apply rstep_r; exact Hadv|].
    eapply rstep_trans; [apply rstep_tset|]. apply rstep_tset. }
  split; auto. split.
  { intros Hr. destruct ok; [|discriminate]. cbn in Hok |- *. specialize (Hok eq_refl). lia. }
  cbn [p_tree with_tree with_r] in *. rewrite get_tset, N.eqb_refl, Hg3. cbn [option_map].
  rewrite get_tset, N.eqb_refl in Hg3.
  destruct (tget (tset (p_tree s) obj (set_opcode op)) obj) as [ox|]; cbn [option_map] in Hg3; [|discriminate].
  inversion Hg3; subst o3. do 2 eexists. split; [reflexivity|]. reflexivity.
Qed.

Lemma simple_str_spec {md} P obj tbl op f s g : FIm md s g -> glive g obj -> newok op ->
  (forall s0 (Q : slice * bool -> pstate -> Prop), rok (p_r s0) ->
     (forall v ok r1, adv (p_r s0) r1 -> (ok = true -> r_offset (p_r s0) < r_offset r1) -> Q (v, ok) (with_r s0 r1)) ->
     wp P (lex f) s0 Q) ->
  wp P (simple_str obj tbl op f) s (fun '(a, res) s' =>
     FIm md s' g /\ rstep s s' /\ a = Some obj /\ (res = ROk -> r_offset (p_r s) < r_offset (p_r s'))).
Proof.
  intros H Hl Hnk Hf. unfold simple_str. pose proof Hnk as (Hnf & _).
  wwrf H Hl. intros o1 Hg1 Hlo1 H1.
  apply wp_bind. apply Hf; [apply (fi_rok _ _ H1)|]. intros v ok r1 Hadv Hok.
  assert (H2 : FIm md (with_r (with_tree s (tset (p_tree s) obj (set_opcode op))) r1) g).
  { apply FI_with_r; [exact H1|]. eapply rok_adv; [apply (fi_rok _ _ H1)|exact Hadv]. }
  wwrf H2 Hl. intros o2 Hg2 Hlo2 H3.
  destruct (nk_info _ Hnk) as (idx & Hidx & Hinf).
  apply wp_bind. eapply wp_tableIndex; [exact Hidx|].
  wwrf H3 Hl. intros o3 Hg3 Hlo3 H4.
  apply wp_ret. split; [exact H4|]. split.
  { eapply rstep_trans; [apply rstep_tset|]. eapply rstep_trans; [apply rstep_r; exact Hadv|].
    eapply rstep_trans; [apply rstep_tset|]. apply rstep_tset. }
  split; auto.
  intros Hr. destruct ok; [|discriminate]. cbn in Hok |- *. specialize (Hok eq_refl). lia.
Qed.

Lemma parseSimpleArg_spec {md} P argTy s g : FIm md s g -> lp s + 1 < InvalidIndex ->
  specm md P (parseSimpleArg argTy) s g (fun '(a, res) s' g' =>
     lp s' <= lp s + 1 /\ p_scopeStack s' = p_scopeStack s /\
     (res = ROk -> r_offset (p_r s) < r_offset (p_r s')) /\
     match a with
     | Some obj => ~ glive g obj /\ glive g' obj /\ groot g' obj /\
                   (argTy = aml_pArgTypeByteData ->
                      exists po v, tget (p_tree s') obj = Some po /\ o_value po = Some (VNum v))
     | None => res = RFailed /\ argTy <> aml_pArgTypeByteData
     end).
Proof.
  intros H Hroom. unfold specm, parseSimpleArg.
  apply wp_bind. eapply new_step; [exact H|apply (newokb_sound 0 eq_refl)|exact Hroom|].
  intros p t1 g1 po H1 Hext Hfresh Hlive Hroot Hkids Hpo Hop Hval Hidx Hlen1 Hlen2.
  apply wp_bind, wp_get.
  wwrf H1 Hlive. intros o1 Hg1 Hlo1 H2.
  apply wp_bind, wp_get.
  set (s2 := with_tree (with_tree s t1) (tset (p_tree (with_tree s t1)) p (set_amlOffset (r_offset (p_r (with_tree s t1)))))) in *.
  assert (S02 : r_len (p_r s2) = r_len (p_r s) /\ r_offset (p_r s2) = r_offset (p_r s) /\
                p_scopeStack s2 = p_scopeStack s /\ lp s2 <= lp s + 1 /\ p_pkgEndStack s2 = p_pkgEndStack s).
  { unfold s2, lp. pcbn. rewrite tset_len. repeat split; auto. lia. }
  destruct S02 as (L02 & O02 & St02 & Lp02 & Pk02).
  assert (Fin : forall (ares : option N * pres) s',
     (let '(a, res) := ares in FIm md s' g1 /\ rstep s2 s' /\ a = Some p /\ (res = ROk -> r_offset (p_r s2) < r_offset (p_r s')) /\
         (argTy = aml_pArgTypeByteData -> exists po v, tget (p_tree s') p = Some po /\ o_value po = Some (VNum v))) ->
     exists g', FIm md s' g' /\ Ext s g s' g' /\
       (let '(a, res) := ares in
        lp s' <= lp s + 1 /\ p_scopeStack s' = p_scopeStack s /\
        (res = ROk -> r_offset (p_r s) < r_offset (p_r s')) /\
        match a with
        | Some obj => ~ glive g obj /\ glive g' obj /\ groot g' obj /\
                      (argTy = aml_pArgTypeByteData -> exists po v, tget (p_tree s') obj = Some po /\ o_value po = Some (VNum v))
        | None => res = RFailed /\ argTy <> aml_pArgTypeByteData
        end)).
  { intros [a res] s' (F1 & (R1 & R2 & R3 & R4 & R5) & -> & F4 & F5). exists g1. split; [exact F1|]. split.
    - constructor; [exact Hext|congruence|lia|exists []; cbn; congruence|rewrite R5, Pk02; lia|rewrite R5, Pk02; lia].
    - split; [lia|]. split; [congruence|]. split; [intros Hr; specialize (F4 Hr); lia|]. auto. }
  clearbody s2.
  destruct (argTy =? aml_pArgTypeByteData) eqn:E1.
  { eapply wp_weaken; [apply (simple_num_spec P p aml_pOpBytePrefix 1 s2 g1 H2 Hlive (newokb_sound aml_pOpBytePrefix eq_refl)); lia|auto|].
    intros [a res] s' (F1 & F2 & F3 & F4 & F5). apply (Fin (a, res)). auto. }
  destruct (argTy =? aml_pArgTypeWordData) eqn:E2.
  { eapply wp_weaken; [apply (simple_num_spec P p aml_pOpWordPrefix 2 s2 g1 H2 Hlive (newokb_sound aml_pOpWordPrefix eq_refl)); lia|auto|].
    intros [a res] s' (F1 & F2 & F3 & F4 & F5). apply (Fin (a, res)). auto. }
  destruct (argTy =? aml_pArgTypeDwordData) eqn:E3.
  { eapply wp_weaken; [apply (simple_num_spec P p aml_pOpDwordPrefix 4 s2 g1 H2 Hlive (newokb_sound aml_pOpDwordPrefix eq_refl)); lia|auto|].
    intros [a res] s' (F1 & F2 & F3 & F4 & F5). apply (Fin (a, res)). auto. }
  destruct (argTy =? aml_pArgTypeQwordData) eqn:E4.
  { eapply wp_weaken; [apply (simple_num_spec P p aml_pOpQwordPrefix 8 s2 g1 H2 Hlive (newokb_sound aml_pOpQwordPrefix eq_refl)); lia|auto|].
    intros [a res] s' (F1 & F2 & F3 & F4 & F5). apply (Fin (a, res)). auto. }
  apply N.eqb_neq in E1.
  destruct (argTy =? aml_pArgTypeString) eqn:E5.
  { eapply wp_weaken; [apply (simple_str_spec P p _ aml_pOpStringPrefix parseString s2 g1 H2 Hlive (newokb_sound aml_pOpStringPrefix eq_refl));
                       intros; apply wp_string; auto|auto|].
    intros [a res] s' (F1 & F2 & F3 & F4). apply (Fin (a, res)). split; [exact F1|]. split; [exact F2|]. split; [exact F3|]. split; [exact F4|]. intros Ebd. contradiction. }
  destruct (argTy =? aml_pArgTypeNameString) eqn:E6.
  { eapply wp_weaken; [apply (simple_str_spec P p _ aml_pOpIntNamePath parseNameString s2 g1 H2 Hlive (newokb_sound aml_pOpIntNamePath eq_refl));
                       intros; apply wp_namestring; auto|auto|].
    intros [a res] s' (F1 & F2 & F3 & F4). apply (Fin (a, res)). split; [exact F1|]. split; [exact F2|]. split; [exact F3|]. split; [exact F4|]. intros Ebd. contradiction. }
  apply wp_ret. exists g1. split; [exact H2|]. split.
  - constructor; [exact Hext|congruence|lia|exists []; cbn; congruence|rewrite Pk02; lia|rewrite Pk02; lia].
  - split; [lia|]. split; [congruence|]. split; [discriminate|split; [reflexivity|exact E1]].
Qed.

(** ---- bookkeeping: [at_ s s' k c]: [s'] is reached from [s] after consuming at least [k] bytes and
    creating at most [c] objects ---- *)
Definition at_ (s s' : pstate) (k c : N) : Prop :=
  r_len (p_r s') = r_len (p_r s) /\ r_offset (p_r s) + k <= r_offset (p_r s') /\
  r_offset (p_r s') <= r_len (p_r s') /\ lp s' <= lp s + c /\
  p_scopeStack s' = p_scopeStack s /\ p_pkgEndStack s' = p_pkgEndStack s.

Lemma at_refl s : rok (p_r s) -> at_ s s 0 0.
Proof. intros (_ & _ & O). unfold at_. repeat split; auto; try lia. Qed.

Lemma at_r s s' k c k' r1 : at_ s s' k c -> r_len r1 = r_len (p_r s') -> r_offset (p_r s) + k' <= r_offset r1 ->
  r_offset r1 <= r_len r1 -> at_ s (with_r s' r1) k' c.
Proof. intros (A1 & A2 & A3 & A4 & A5 & A6) B1 B2 B3. unfold at_, lp in *. pcbn. repeat split; auto. congruence. Qed.

Lemma at_adv s s' k c r1 j : at_ s s' k c -> adv (p_r s') r1 -> r_offset (p_r s') + j <= r_offset r1 ->
  at_ s (with_r s' r1) (k + j) c.
Proof.
  intros A ((_ & E & _) & L & L') Hj. pose proof A as (A1 & A2 & A3 & A4 & A5 & A6).
  eapply at_r; eauto. lia.
Qed.

Lemma at_tset s s' k c p f : at_ s s' k c -> at_ s (with_tree s' (tset (p_tree s') p f)) k c.
Proof. intros (A1 & A2 & A3 & A4 & A5 & A6). unfold at_, lp in *. pcbn. rewrite tset_len. repeat split; auto. Qed.

Lemma at_new s s' k c t' : at_ s s' k c -> (length (t_pool t') <= S (length (t_pool (p_tree s'))))%nat ->
  at_ s (with_tree s' t') k (c + 1).
Proof. intros (A1 & A2 & A3 & A4 & A5 & A6) L. unfold at_, lp in *. pcbn. repeat split; auto. lia. Qed.

Lemma at_new' s s' k c c' t' : at_ s s' k c -> (length (t_pool t') <= S (length (t_pool (p_tree s'))))%nat ->
  c' = c + 1 -> at_ s (with_tree s' t') k c'.
Proof. intros A L ->. apply at_new; auto. Qed.

Lemma at_pframe s s' k c t' : at_ s s' k c -> pframe (p_tree s') t' -> at_ s (with_tree s' t') k c.
Proof. intros (A1 & A2 & A3 & A4 & A5 & A6) [L _]. unfold at_, lp in *. pcbn. rewrite L. repeat split; auto. Qed.

Lemma at_weaken s s' k c k' c' : at_ s s' k c -> k' <= k -> c <= c' -> at_ s s' k' c'.
Proof. intros (A1 & A2 & A3 & A4 & A5 & A6) K C. unfold at_. repeat split; auto; lia. Qed.

Lemma at_Ext s s' k c g g' : at_ s s' k c -> gext g g' -> Ext s g s' g'.
Proof. intros (A1 & A2 & A3 & A4 & A5 & A6) G. constructor; auto; [lia|exists []; exact A5|rewrite A6; lia|rewrite A6; lia]. Qed.

Lemma at_Phi s s' k c : at_ s s' k c -> Phi s' + 4 * k <= Phi s + c /\ rem s' + k <= rem s.
Proof. intros (A1 & A2 & A3 & A4 & A5 & A6). unfold Phi, rem. lia. Qed.

Lemma at_trans a b d k c k' c' : at_ a b k c -> at_ b d k' c' -> at_ a d (k + k') (c + c').
Proof.
  intros (A1 & A2 & A3 & A4 & A5 & A6) (B1 & B2 & B3 & B4 & B5 & B6). unfold at_. repeat split; try lia; try congruence.
Qed.

Lemma at_trans0 a b d k c : at_ a b k c -> at_ b d 0 0 -> at_ a d k c.
Proof. intros A B. pose proof (at_trans _ _ _ _ _ _ _ A B) as C. rewrite !N.add_0_r in C. exact C. Qed.

Lemma at_adv0 s s' k c r1 : at_ s s' k c -> adv (p_r s') r1 -> at_ s (with_r s' r1) k c.
Proof.
  intros A Hadv. assert (L : r_offset (p_r s') + 0 <= r_offset r1) by (destruct Hadv as (_ & L & _); lia).
  pose proof (at_adv _ _ _ _ r1 0 A Hadv L) as C. rewrite N.add_0_r in C. exact C.
Qed.


Lemma FI_adv {md} s g r1 : FIm md s g -> adv (p_r s) r1 -> FIm md (with_r s r1) g.
Proof. intros H A. apply FI_with_r; auto. eapply rok_adv; eauto. apply (fi_rok _ _ H). Qed.

Lemma at_rok s s' k c : at_ s s' k c -> r_offset (p_r s') <= r_len (p_r s').
Proof. intros (_ & _ & A & _). exact A. Qed.

Lemma fieldByte_spec {md} P s g : FIm md s g -> wp P fieldByte s (fun a s' => FIm md s' g /\ at_ s s' 0 0).
Proof.
  intros H. unfold fieldByte. apply wp_bind. apply wp_num; [apply (fi_rok _ _ H)|]. intros v ok r1 Hadv Hok.
  apply wp_ret. split; [apply FI_adv; auto|].
  replace 0 with (0 + 0) at 1 by reflexivity. apply at_adv; [apply at_refl, (fi_rok _ _ H)|exact Hadv|].
  destruct Hadv as (_ & L & _). lia.
Qed.

Lemma readName_go_spec {md} P field cnt : forall i s g, FIm md s g -> glive g field ->
  wp P (readName_go cnt i field) s (fun ok s' => FIm md s' g /\ at_ s s' 0 0).
Proof.
  induction cnt as [|cnt IH]; intros i s g H Hl; cbn [readName_go].
  - apply wp_ret. split; auto. apply at_refl. apply (fi_rok _ _ H).
  - apply wp_bind. apply wp_readByte; [apply (fi_rok _ _ H)|]. intros b r1 Hadv Hn Hs.
    assert (H1 : FIm md (with_r s r1) g) by (apply FI_adv; auto).
    assert (A1 : at_ s (with_r s r1) 0 0).
    { replace 0 with (0 + 0) at 1 by reflexivity. apply at_adv; [apply at_refl, (fi_rok _ _ H)|exact Hadv|].
      destruct Hadv as (_ & L & _). lia. }
    destruct (FI_live_get _ _ _ H1 Hl) as (o & Hg & Ho).
    apply wp_bind. eapply wp_tq; [cbv beta; rewrite deref_get, Hg; reflexivity|].
    destruct b as [b|].
    + wwrf H1 Hl. intros o1 Hg1 Hlo1 H2. eapply wp_weaken; [apply IH; eauto|auto|].
      intros ok s' (F1 & F2). split; auto.
      replace 0 with (0 + 0) by reflexivity. eapply at_trans; [apply at_tset; exact A1|exact F2].
    + wwrf H1 Hl. intros o1 Hg1 Hlo1 H2. apply wp_ret. split; auto. apply at_tset. exact A1.
Qed.

Definition dl_block (origOffset pkgLen : N) : M (option N) :=
  if 0 <? pkgLen then
    mlet ok2 <~ setPkgEndM (w32 (origOffset + pkgLen)) ;;
    if negb ok2 then ret None else
    mlet '(nextOp, ok3) <~ lex nextOpcode ;;
    if negb ok3 then ret None else
    if nextOp =? aml_pOpBytePrefix then mlet '(v, ok4) <~ lex (parseNumConstant 1) ;; ret (if ok4 then Some v else None)
    else if nextOp =? aml_pOpWordPrefix then mlet '(v, ok4) <~ lex (parseNumConstant 2) ;; ret (if ok4 then Some v else None)
    else if nextOp =? aml_pOpDwordPrefix then mlet '(v, ok4) <~ lex (parseNumConstant 4) ;; ret (if ok4 then Some v else None)
    else ret (Some 0)
  else ret (Some 0).

Lemma dl_block_spec {md} P origOffset pkgLen s g : FIm md s g ->
  wp P (dl_block origOffset pkgLen) s (fun a s' => FIm md s' g /\ at_ s s' 0 0).
Proof.
  intros H. unfold dl_block. pose proof (fi_rok _ _ H) as Hrok.
  destruct (0 <? pkgLen); [|apply wp_ret; split; auto; apply at_refl; auto].
  apply wp_bind. apply wp_setPkgEnd.
  set (s1 := with_r s (fst (setPkgEnd (p_r s) (w32 (origOffset + pkgLen))))).
  assert (Hrok1 : rok (p_r s1)) by (apply rok_setPkgEnd; auto).
  assert (H1 : FIm md s1 g) by (apply FI_with_r; auto).
  destruct (setPkgEnd_off (p_r s) (w32 (origOffset + pkgLen))) as (Eo & El).
  assert (A1 : at_ s s1 0 0).
  { eapply at_r; [apply at_refl; auto|exact El|pcbn; lia|]. pcbn. destruct Hrok as (_ & _ & O). pcbn_in Eo. lia. }
  destruct (snd (setPkgEnd (p_r s) (w32 (origOffset + pkgLen)))); cbn [negb]; [|apply wp_ret; split; auto].
  apply wp_bind. apply wp_nextop; auto. intros op ok r2 Hadv2 _ _.
  assert (H2 : FIm md (with_r s1 r2) g) by (apply FI_adv; auto).
  assert (A2 : at_ s (with_r s1 r2) 0 0).
  { replace 0 with (0 + 0) at 1 by reflexivity. apply at_adv; [exact A1|exact Hadv2|]. destruct Hadv2 as (_ & L & _). lia. }
  destruct ok; cbn [negb]; [|apply wp_ret; split; auto].
  assert (Fin : forall k, wp P (mlet '(v, ok4) <~ lex (parseNumConstant k) ;; ret (if ok4 then Some v else None)) (with_r s1 r2)
                            (fun _ s' => FIm md s' g /\ at_ s s' 0 0)).
  { intros k. apply wp_bind. apply wp_num; [apply (fi_rok _ _ H2)|]. intros v ok r3 Hadv3 _.
    apply wp_ret. split; [apply FI_adv; auto|].
    replace 0 with (0 + 0) at 1 by reflexivity. apply at_adv; [exact A2|exact Hadv3|]. destruct Hadv3 as (_ & L & _). lia. }
  destruct (op =? aml_pOpBytePrefix); [apply Fin|].
  destruct (op =? aml_pOpWordPrefix); [apply Fin|].
  destruct (op =? aml_pOpDwordPrefix); [apply Fin|].
  apply wp_ret. split; auto.
Qed.

Definition FPost (s : pstate) (res : pres) (s' : pstate) : Prop :=
  Phi s' <= Phi s + 2 /\ (res = RShort -> Phi s' <= Phi s) /\ res <> ROk /\
  p_scopeStack s' = p_scopeStack s /\ p_pkgEndStack s' = p_pkgEndStack s.

