(** C11 (fragments): the Name a NameSeg is stored as. *)
From Coq Require Import NArith.
From FF Require Import Aml.Tree.
Local Open Scope N_scope.

Definition seg_nm (s : N) : Name :=
  (N.land (N.shiftr s 24) 0xff, N.land (N.shiftr s 16) 0xff, N.land (N.shiftr s 8) 0xff, N.land s 0xff).
