(** The three read-only walks of obj_tree.go - NumArgs, ArgAt, ClosestNamedAncestor - and CreateDefaultScopes: the
    hand-written model (Aml/Tree.v) equals the Go -> Gallina translation (Gen/Trans_aml_tree.v).  Continuation of
    Aml/TreeTrans.v. *)
From Coq Require Import NArith PeanoNat List Bool Lia.
From FF Require Import Lib.Word Lib.GoOps Lib.GoPool Gen.Consts_aml_tree Gen.Trans_aml_tree Aml.Stream Aml.Tree Aml.TreeTrans.
Import ListNotations.
Local Open Scope N_scope.
Transparent InvalidIndex opFreed.

Section Queries.
Context {V : Type}.
Notation Obj := (Object V).
Notation Tree := (ObjectTree V).

(** ---- the three loops: [gloop] of the translation against the model's recursion on fuel; the exit test consumes one
    unit of fuel on both sides, so the equality holds for EVERY fuel (GFuel exactly where the model says OutOfFuel) ---- *)
Theorem NumArgs_is_translation : forall (t : Tree) (obj : option N) (fuel : nat),
  go_aml_ObjectTree_NumArgs fuel (tr_tree t) obj = lift (fun n => (tr_tree t, n))
    (match obj with None => Ok 0 | Some p => do first <- rd t p o_first; numArgs_go fuel t first 0 end).
Proof.
  intros. unfold go_aml_ObjectTree_NumArgs. destruct obj as [p|]; cbn [gisnil]; [|reflexivity].
  apply sim_rd; intros o _. fields.
  match goal with |- context [gloop _ ?S _] => set (STEP := S) end.
  assert (L : forall fuel c s,
    gloop fuel STEP (tr_tree t, c, s) =
    match numArgs_go fuel t s c with
    | Ok c' => GOk (inl (tr_tree t, c', tree_InvalidIndex)) | Panic => GPanic | OutOfFuel => GFuel end).
  { induction fuel0 as [|f IH]; intros c s; [reflexivity|].
    cbn [gloop numArgs_go]. unfold STEP at 1. cbv beta iota. unfold InvalidIndex.
    destruct (s =? tree_InvalidIndex) eqn:E; cbn [negb].
    - apply N.eqb_eq in E. now subst s.
    - rewrite ObjectAt_is_translation. unfold ObjectAt_deref, rd.
      destruct (ObjectAt t s) as [q|]; cbn [bind]; [|reflexivity].
      rewrite gderef_tr. destruct (deref t q) as [oq| |] eqn:Dq; cbn [bind]; [ | reflexivity | exfalso; exact (deref_not_fuel _ _ Dq)].
      change (f_Object_nextSiblingIndex (tr_obj oq)) with (o_next oq). change (gw 32 (c + 1)) with (w32 (c + 1)).
      apply IH. }
  rewrite L. destruct (numArgs_go fuel t (o_first o) 0); reflexivity.
Qed.

Theorem ArgAt_is_translation : forall (t : Tree) (obj : option N) (index : N) (fuel : nat),
  go_aml_ObjectTree_ArgAt fuel (tr_tree t) obj index = lift (fun r => (tr_tree t, r))
    (match obj with None => Ok None | Some p => do first <- rd t p o_first; argAt_go fuel t 0 first index end).
Proof.
  intros. unfold go_aml_ObjectTree_ArgAt. destruct obj as [p|]; cbn [gisnil]; [|reflexivity].
  apply sim_rd; intros o _. fields. change (gw 32 0) with 0.
  match goal with |- context [gloop _ ?S _] => set (STEP := S) end.
  assert (L : forall fuel ai s,
    match gloop (R := (@go_aml_ObjectTree V * option N)%type) fuel STEP (tr_tree t, ai, s) with
    | GPanic => GPanic | GFuel => GFuel
    | GOk (inr r) => GOk r
    | GOk (inl st) => let '(v_tree, _, _) := st in GOk (v_tree, None)
    end = lift (fun r => (tr_tree t, r)) (argAt_go fuel t ai s index)).
  { induction fuel0 as [|f IH]; intros ai s; [reflexivity|].
    cbn [gloop argAt_go]. unfold STEP at 1. cbv beta iota. unfold InvalidIndex.
    destruct (s =? tree_InvalidIndex) eqn:E; cbn [negb]; [reflexivity|].
    destruct (ai =? index) eqn:E2.
    - rewrite ObjectAt_is_translation. reflexivity.
    - cbv zeta. rewrite ObjectAt_is_translation. unfold ObjectAt_deref, rd.
      destruct (ObjectAt t s) as [q|]; cbn [bind lift]; [|reflexivity].
      rewrite gderef_tr. destruct (deref t q) as [oq| |] eqn:Dq; cbn [bind lift]; [ | reflexivity | exfalso; exact (deref_not_fuel _ _ Dq)].
      change (f_Object_nextSiblingIndex (tr_obj oq)) with (o_next oq). change (gw 32 (ai + 1)) with (w32 (ai + 1)).
      apply IH. }
  exact (L fuel 0 (o_first o)).
Qed.

Theorem ClosestNamedAncestor_is_translation : forall (t : Tree) (obj : option N) (fuel : nat),
  go_aml_ObjectTree_ClosestNamedAncestor fuel (tr_tree t) obj =
  lift (fun r => (tr_tree t, r))
    (match obj with None => Ok InvalidIndex | Some p => do par <- rd t p o_parent; closest_go fuel t par end).
Proof.
  intros. unfold go_aml_ObjectTree_ClosestNamedAncestor. destruct obj as [p|]; cbn [gisnil]; [|reflexivity].
  apply sim_rd; intros o _. fields.
  match goal with |- context [gloop _ ?S _] => set (STEP := S) end.
  assert (L : forall fuel a,
    match gloop (R := (@go_aml_ObjectTree V * N)%type) fuel STEP (tr_tree t, a) with
    | GPanic => GPanic | GFuel => GFuel
    | GOk (inr r) => GOk r
    | GOk (inl st) => let '(v_tree, _) := st in GOk (v_tree, tree_InvalidIndex)
    end = lift (fun r => (tr_tree t, r)) (closest_go fuel t a)).
  { induction fuel0 as [|f IH]; intros a; [reflexivity|].
    cbn [gloop closest_go]. unfold STEP at 1. cbv beta iota. unfold InvalidIndex, opScope.
    destruct (a =? tree_InvalidIndex) eqn:E; cbn [negb]; [reflexivity|].
    rewrite ObjectAt_is_translation. unfold ObjectAt_deref.
    destruct (ObjectAt t a) as [q|]; cbn [bind lift]; [|reflexivity].
    cbv zeta. rewrite !gderef_tr. destruct (deref t q) as [oq| |] eqn:Dq; cbn [bind lift]; [ | reflexivity | exfalso; exact (deref_not_fuel _ _ Dq)].
    change (f_Object_opcode (tr_obj oq)) with (o_opcode oq).
    destruct (o_opcode oq =? tree_pOpScope); [reflexivity|].
    change (f_Object_infoIndex (tr_obj oq)) with (o_infoIndex oq). unfold gidx.
    destruct (nth_error tree_opcodeTableFlags (N.to_nat (o_infoIndex oq))) as [fl|]; [|reflexivity].
    destruct (N.land fl tree_pOpFlagNamed =? 0); cbn [negb]; [|reflexivity].
    change (f_Object_parentIndex (tr_obj oq)) with (o_parent oq). apply IH. }
  exact (L fuel (o_parent o)).
Qed.

(** with the model's own fuel *)
Corollary queries_model_fuel : forall (t : Tree) (obj : option N) (index : N),
  go_aml_ObjectTree_NumArgs (chain_fuel t) (tr_tree t) obj = lift (fun n => (tr_tree t, n)) (NumArgs t obj) /\
  go_aml_ObjectTree_ArgAt (chain_fuel t) (tr_tree t) obj index = lift (fun r => (tr_tree t, r)) (ArgAt t obj index) /\
  go_aml_ObjectTree_ClosestNamedAncestor (chain_fuel t) (tr_tree t) obj =
    lift (fun r => (tr_tree t, r)) (ClosestNamedAncestor t obj).
Proof.
  intros. split; [|split].
  - apply NumArgs_is_translation. - apply ArgAt_is_translation. - apply ClosestNamedAncestor_is_translation.
Qed.
End Queries.

Section Scopes.
Context {V : Type}.
Notation Obj := (Object V).
Notation Tree := (ObjectTree V).

(** CreateDefaultScopes: six newNamedObject calls and five appends; the model takes the names from the regenerated
    constant [tree_defaultScopeNames], the translation from the array literals of the source.  For any oracle under
    which newNamedObject is the model's. *)
Lemma CreateDefaultScopes_sim : forall (o : N -> bool -> option N) (th : N),
  (forall (t : Tree) nm bytes, bytes = name_bytes nm ->
     go_aml_ObjectTree_newNamedObject (tr_tree t) tree_pOpIntScopeBlock th bytes o =
     lift (fun '(t', p) => (tr_tree t', Some p)) (newNamedObject t opScopeBlock th nm)) ->
  forall t : Tree,
  go_aml_ObjectTree_CreateDefaultScopes (tr_tree t) th o = lift (fun t' => (tr_tree t', tt)) (CreateDefaultScopes t th).
Proof.
  intros o th H t. unfold go_aml_ObjectTree_CreateDefaultScopes, CreateDefaultScopes.
  change tree_defaultScopeNames with [[92; 0; 0; 0]; [95; 71; 80; 69]; [95; 80; 82; 95]; [95; 83; 66; 95]; [95; 83; 73; 95]; [95; 84; 90; 95]].
  cbn [append_scopes].
  apply (sim_join _ (fun '(t', p) => (tr_tree t', Some p))); [now apply H | intros [t0 root]].
  do 5 (apply (sim_join _ (fun '(t', p) => (tr_tree t', Some p))); [now apply H | intros [? ?]];
        apply (sim_join _ (fun t' => (tr_tree t', tt))); [apply append_is_translation | intros ?]).
  reflexivity.
Qed.

Theorem CreateDefaultScopes_is_translation : forall (t : Tree) (th : N),
  go_aml_ObjectTree_CreateDefaultScopes (tr_tree t) th table_oracle =
  lift (fun t' => (tr_tree t', tt)) (CreateDefaultScopes t th).
Proof. intros. apply CreateDefaultScopes_sim. intros ? ? ? ->. apply newNamedObject_is_translation. Qed.
End Scopes.
