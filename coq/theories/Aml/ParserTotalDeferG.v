(** parseDeferredBlocks: the step of parseArgs - one argument, the optional append, then the remaining
    arguments; a Method being built advances from an empty object to a typed one. *)
From Coq Require Import NArith Arith List Bool Lia.
From Coq Require Import ZifyBool ZifyN ZifyNat.
From FF Require Import Lib.Word Gen.Consts_device_acpi_aml Gen.Consts_aml_tree Aml.Stream Aml.Lex Aml.LexProofs
  Aml.Tree Aml.Parser Aml.ParserProofs Aml.TreeSpec Aml.TreeProofs Aml.TreeProofsOps Aml.TreeProofsFind Aml.TreeProofsAnc
  Aml.ParserTotalTree Aml.ParserTotalTree2 Aml.ParserTotalLex Aml.ParserTotalTable Aml.ParserTotalBase Aml.ParserTotalLeaf
  Aml.ParserTotalFrame Aml.ParserTotalLeaf2 Aml.ParserTotalFirst Aml.ParserTotalConn Aml.ParserTotalReloc Aml.ParserTotalDefer
  Aml.ParserTotalDeferS Aml.ParserTotalDeferA.
Import ListNotations.
Local Open Scope N_scope.

(** ---- counting the arguments that create an object without consuming a byte ---- *)
Lemma cntu_1 af i : cntu af i = 1 <-> exists j, j < 8 /\ i <= j /\ unpaid (argType af j) = true.
Proof.
  unfold cntu. destruct (existsb (fun j => (i <=? j) && unpaid (argType af j)) idx8) eqn:E.
  - split; [intros _|reflexivity]. apply existsb_exists in E. destruct E as (j & Hj & Hb). apply andb_prop in Hb. destruct Hb as (Hb1 & Hb2).
    exists j. split; [|split; [apply N.leb_le; exact Hb1|exact Hb2]].
    unfold idx8 in Hj. cbn [In] in Hj. repeat (destruct Hj as [<-|Hj]; [lia|]). contradiction.
  - split; [discriminate|]. intros (j & Hj8 & Hij & Hu). exfalso.
    assert (Hex : existsb (fun j => (i <=? j) && unpaid (argType af j)) idx8 = true).
    { apply existsb_exists. exists j. split; [apply In_idx8; exact Hj8|]. rewrite Hu. apply N.leb_le in Hij. rewrite Hij. reflexivity. }
    congruence.
Qed.

Lemma cntu_01 af i : cntu af i = 0 \/ cntu af i = 1.
Proof. unfold cntu. destruct (existsb _ idx8); auto. Qed.

Lemma cntu_mono af i : cntu af (i + 1) <= cntu af i.
Proof.
  destruct (cntu_01 af (i + 1)) as [E|E]; [lia|]. rewrite E. apply cntu_1 in E. destruct E as (j & A & B & C).
  assert (E' : cntu af i = 1) by (apply cntu_1; exists j; split; [exact A|split; [lia|exact C]]). lia.
Qed.

Lemma ucost_cntu af i : i < 8 -> ucost (argType af i) <= cntu af i.
Proof.
  intros Hi. unfold ucost. destruct (unpaid (argType af i)) eqn:E; [|lia].
  assert (E' : cntu af i = 1) by (apply cntu_1; exists i; split; [exact Hi|split; [lia|exact E]]). lia.
Qed.

(** ---- where the fields go: composition ---- *)
Lemma finsert_refl s g c : finsert s g g c.
Proof. intros par l1 tl E. exists []. split; [exact E|apply sibs_nil]. Qed.

Lemma finsert_trans s1 s2 g g1 g2 c :
  finsert s1 g g1 c -> finsert s2 g1 g2 c -> (forall x, glive g x -> glive g1 x) -> carry g s1 g1 s2 g2 -> finsert s2 g g2 c.
Proof.
  intros F1 F2 L C par l1 tl E. destruct (F1 par l1 tl E) as (new1 & E1 & S1). destruct (F2 par l1 (new1 ++ tl) E1) as (new2 & E2 & S2).
  exists (new2 ++ new1). split; [rewrite E2, <- app_assoc; reflexivity|].
  apply sibs_app; [eapply sibs_old; eauto|eapply sibs_carry; eauto].
Qed.

Lemma finsert_same s' g g' c : (forall y, In c (kids g y) -> kids g' y = kids g y) -> finsert s' g g' c.
Proof.
  intros H par l1 tl E. exists []. split; [|apply sibs_nil]. rewrite H; [exact E|]. rewrite E. apply in_or_app. right. left. reflexivity.
Qed.

Lemma carry_append g s1 g1 s2 g2 c :
  pframe (p_tree s1) (p_tree s2) -> (forall q, q <> c -> kids g2 q = kids g1 q) -> (forall x, glive g2 x <-> glive g1 x) ->
  glive g c -> carry g s1 g1 s2 g2.
Proof.
  intros Hpf Hk Hlv Hc x Hl Hn Hkx (o & Ho & Hrow).
  split; [apply Hlv; exact Hl|]. split.
  - rewrite Hk; [exact Hkx|]. intros E. apply Hn. rewrite E. exact Hc.
  - destruct (proj2 Hpf _ _ Ho) as (o' & Ho' & (_ & Ei & _)). exists o'. split; [exact Ho'|]. rewrite Ei. exact Hrow.
Qed.

Section StepG.
Variable tbls : list (list N).
Notation IV := (Inv tbls).

(** the types of the first three arguments of a Method look nothing up *)
Lemma method_nolook i : i <= 2 -> nolook (argType methodAF i) = true.
Proof.
  intros Hi. destruct method_row as (_ & _ & _ & E0 & E1 & E2 & _).
  assert (Hc : i = 0 \/ i = 1 \/ i = 2) by lia. destruct Hc as [->|[->| ->]]; [rewrite E0|rewrite E1|rewrite E2]; reflexivity.
Qed.

(** a Method whose arguments are being parsed: either it is complete, or the next argument looks nothing up *)
Lemma mbA_TM s g c af i :
  TM (eq c) s g -> mbA s g c af i -> TM (fun m => m = c /\ nolook (argType af i) = true) s g.
Proof.
  intros HTM Hmb m mo Hm Hop Hx. destruct (N.eq_dec c m) as [E|E]; [|apply (HTM m mo Hm Hop E)]. subst m.
  destruct (Hmb mo Hm Hop) as [Ht|(-> & Hb)]; [exact Ht|]. exfalso. apply Hx. split; [reflexivity|].
  apply method_nolook. destruct Hb as [(Hi & _)|(Hi & _)]; lia.
Qed.

Lemma mbA_done s g c af i : argCount af <= i -> argCount af <> 0 \/ True -> TM (eq c) s g -> mbA s g c af i -> TM NoX s g.
Proof.
  intros Hc _ HTM Hmb m mo Hm Hop _. destruct (N.eq_dec c m) as [E|E]; [|apply (HTM m mo Hm Hop E)]. subst m.
  destruct (Hmb mo Hm Hop) as [Ht|(-> & Hb)]; [exact Ht|]. exfalso.
  destruct method_row as (_ & _ & Ec & _). rewrite Ec in Hc. destruct Hb as [(Hi & _)|(Hi & _)]; lia.
Qed.

(** typedness of the Methods other than [c] survives a relinking step that leaves their child lists alone *)
Lemma TM_pframe_except (X : N -> Prop) s1 g1 s2 g2 c :
  gwf g1 -> TM X s1 g1 -> pframe (p_tree s1) (p_tree s2) -> (forall q, q <> c -> kids g2 q = kids g1 q) -> notnp s1 c ->
  TM (fun m => X m \/ m = c) s2 g2.
Proof.
  intros Hwf H Hpf Hk Hnc m mo Hm Hop Hx.
  destruct (pframe_inv _ _ _ _ Hpf Hm) as (mo1 & Hm1 & E1 & _).
  assert (Hmc : m <> c) by (intros E; apply Hx; right; exact E).
  assert (Ht1 : mtyped s1 g1 m) by (apply (H m mo1 Hm1); [congruence|intros F; apply Hx; left; exact F]).
  destruct Ht1 as (a0 & a1 & rest & a0o & a1o & v & Hk1 & Ha0 & Hn0 & Ha1 & Hv & Hn1 & Hmx).
  destruct (proj2 Hpf _ _ Ha0) as (a0o' & Ha0' & E0). destruct (proj2 Hpf _ _ Ha1) as (a1o' & Ha1' & E1').
  destruct (pay_eq_pnv _ _ E0) as (E0p & _). destruct (pay_eq_pnv _ _ E1') as (E1p & V1).
  assert (Ha0c : a0 <> c) by (intros ->; destruct Hmx as (_ & M2 & _); exact (Hnc a0o Ha0 M2)).
  exists a0, a1, rest, a0o', a1o', v. rewrite (Hk m Hmc). split; [exact Hk1|]. split; [exact Ha0'|].
  split; [eapply nodefer_pnv; eauto|]. split; [exact Ha1'|]. split; [congruence|]. split; [eapply nodefer_pnv; eauto|].
  apply (mx_pnv g1 g2 a0 a0o a0o' a1o a1o' E0p E1p (Hk a0 Ha0c) Hmx).
Qed.

Lemma step_Dargs fuel : D_arg tbls fuel -> D_args tbls fuel -> D_args tbls (S fuel).
Proof.
  intros IHarg IHargs ii op fl af curObj argIndex s g H I0 H0 Hl Hrow Hi9 Hroom Hflp Htie HLI HTM Hmb.
  cbn [parseArgs].
  pose proof (argCount_le8 af) as Hcnt. pose proof (fi_R _ _ H) as HR. pose proof (R_gwf _ _ HR) as Hwf.
  assert (Hdone : argCount af <= argIndex ->
    exists g', FD s g' /\ ExtD s g s g' /\ Fr NoP (eq curObj) (fun y => has_fl af /\ In curObj (kids g y)) s g s g' /\
      finsert s g g' curObj /\ Psi s <= Psi s + 3 /\
      (okres ROk -> Psi s <= Psi s + cntu af argIndex /\ TM NoX s g' /\ p_scopeStack s = p_scopeStack s)).
  { intros Hc. exists g. split; [exact H|]. split; [apply ExtD_refl|]. split; [apply Fr_refl|]. split; [apply finsert_refl|].
    split; [lia|]. intros _. split; [lia|]. split; [|reflexivity]. eapply mbA_done; eauto. }
  destruct (N.eqb_spec (argCount af) 0) as [Ez|Ez].
  { apply wp_ret. apply Hdone. lia. }
  destruct (argCount af <=? argIndex) eqn:Ele.
  { apply wp_ret. apply Hdone. apply N.leb_le. exact Ele. }
  clear Hdone. apply N.leb_gt in Ele. assert (Hi8 : argIndex < 8) by lia.
  assert (Hnnp : notnp s curObj).
  { intros co Hco E. rewrite (Htie co Hco) in E. subst ii. vm_compute in Hrow. injection Hrow as _ _ Eaf. subst af. vm_compute in Ele. destruct argIndex; discriminate. }
  set (argTy := argType af argIndex) in *.
  assert (Hhf : argTy = aml_pArgTypeFieldList -> hasfl s curObj).
  { intros E. destruct (FI_live_get _ _ _ H Hl) as (co & Hco & _). exists co, op, fl, af. split; [exact Hco|].
    split; [rewrite (Htie co Hco); exact Hrow|]. exists argIndex. split; [exact Hi8|exact E]. }
  wbi tbls I0. eapply wp_weaken; [apply (IHarg op fl af curObj argTy s g H I0 H0 Hl)| |].
  { pose proof (ucost_cntu af argIndex Hi8). fold argTy in H1. unfold roomD in *. lia. }
  { intros E. split; [apply Hflp; exists argIndex; split; auto|]. split; [apply HLI; auto|apply Hhf; exact E]. }
  { apply mbA_TM; auto. }
  { exact Hnnp. }
  { auto. }
  intros [a res] s1 (g1 & H1 & X1 & F1 & Hkc1 & Hfi1 & Hfr & HP1 & Hok1 & Hsh1 & Hbd1 & Hns1 & Hpl1 & Hnfl1) I1.
  pose proof (xd_g _ _ _ _ X1) as G1.
  assert (Hlc1 : glive g1 curObj) by (apply (ge_live _ _ G1); exact Hl).
  assert (Hnnp1 : notnp s1 curObj) by (apply (notnp_keep NoP s g s1 curObj (fr_keep _ _ _ _ _ _ _ F1) HR Hl Hnnp)).
  (* the state after the optional append *)
  assert (Happ : forall (Q : unit -> pstate -> Prop),
    (forall s2 g2, FD s2 g2 -> IV s2 -> gext g g2 -> pframe (p_tree s1) (p_tree s2) ->
       Psi s2 = Psi s1 -> p_scopeStack s2 = p_scopeStack s1 ->
       r_len (p_r s2) = r_len (p_r s1) -> r_offset (p_r s2) = r_offset (p_r s1) ->
       kids g2 curObj = kids g1 curObj ++ (match a with Some x => [x] | None => [] end) ->
       (forall q, q <> curObj -> kids g2 q = kids g1 q) ->
       (forall x, glive g2 x <-> glive g1 x) -> Q tt s2) ->
    wp True (match a with Some a0 => appendM (Some curObj) a0 | None => ret tt end) s1 (fun u s2 => IV s2 -> Q u s2)).
  { intros Q K. destruct a as [obj|].
    - destruct Hfr as (Hfresh & Hlive & Hroot).
      eapply (append_step _ curObj obj s1 g1 g); [exact H1|exact Hwf|exact G1|exact Hl|exact Hfresh|exact Hlive|exact Hroot|].
      intros t2 H2 G2 Hpf Hk Hk' I2.
      apply (K (with_tree s1 t2) (astep g1 (OpAppend curObj obj))); auto.
      + unfold Psi, lp, rem. pcbn. rewrite (proj1 Hpf). reflexivity.
      + intros x. apply glive_append.
    - apply wp_ret. intros I2. apply (K s1 g1); auto.
      + apply pframe_refl.
      + rewrite app_nil_r. reflexivity.
      + intros x. tauto. }
  assert (HflE : argTy = aml_pArgTypeFieldList -> has_fl af) by (intros E; exists argIndex; split; [exact Hi8|exact E]).
  apply (wp_bind_inv tbls _ _ _ _ _ I1); [destruct a; [apply hoare_appendM|apply hoare_ret; exact I]|].
  apply Happ. intros s2 g2 H2 I2 G2 Hpf2 EP2 Est2 El2 Eo2 Hk2 Hk2' Hlv2.
  assert (Hlc2 : glive g2 curObj) by (apply (ge_live _ _ G2); exact Hl).
  (* frames up to here *)
  assert (F2 : Fr NoP (eq curObj) (fun y => has_fl af /\ In curObj (kids g y)) s g s2 g2).
  { assert (F1' : Fr NoP (eq curObj) (fun y => has_fl af /\ In curObj (kids g y)) s g s1 g1).
    { eapply Fr_weaken; [| | |exact F1]; auto. intros y _ (E & Hin). split; [apply HflE; exact E|exact Hin]. }
    destruct F1' as [K1 Gk1]. constructor.
    - intros i o Hi Ho. destruct (K1 i o Hi Ho) as (o1 & Ho1 & E1 & V1). destruct (proj2 Hpf2 _ _ Ho1) as (o2 & Ho2 & E2).
      destruct (pay_eq_pnv _ _ E2) as (E2' & V2). exists o2. split; [exact Ho2|]. split; [eapply pnv_trans; eauto|]. intros Hn. rewrite V2. apply V1. exact Hn.
    - intros y Hy HE. destruct (Gk1 y Hy HE) as ((e1 & Ee1) & B1).
      destruct (N.eq_dec y curObj) as [->|Hne].
      + split; [rewrite Hk2, Ee1, <- app_assoc; eexists; reflexivity|]. intros F. exfalso. apply F. reflexivity.
      + rewrite (Hk2' y Hne). split; [exists e1; exact Ee1|]. exact B1. }
  assert (Hfi2 : finsert s2 g g2 curObj).
  { apply finsert_trans with (s1 := s1) (g1 := g1).
    - destruct (N.eq_dec argTy aml_pArgTypeFieldList) as [E|E]; [apply Hfi1; exact E|].
      apply finsert_same. intros y Hin. assert (Hy : glive g y) by (apply (Hwf y curObj Hin)).
      destruct (fr_kids _ _ _ _ _ _ _ F1 y Hy) as (_ & Hex); [intros (F & _); contradiction|].
      apply Hex. intros Ey. subst y. eapply (R_child_neq_parent _ _ HR); eauto.
    - apply finsert_same. intros y Hin. apply Hk2'. intros Ey. subst y.
      eapply (R_child_neq_parent _ _ (fi_R _ _ H1)); eauto.
    - apply (ge_live _ _ G1).
    - eapply carry_append; eauto. }
  assert (HX2 : ExtD s g s2 g2).
  { constructor; [exact G2| | |].
    - rewrite El2. apply (xd_len _ _ _ _ X1).
    - rewrite Eo2. apply (xd_off _ _ _ _ X1).
    - rewrite Est2. apply (xd_scopes _ _ _ _ X1). }
  (* the object itself, back at the start *)
  assert (Hback : forall mo, tget (p_tree s2) curObj = Some mo ->
            exists co, tget (p_tree s) curObj = Some co /\ o_opcode co = o_opcode mo).
  { intros mo Hm. destruct (FI_live_get _ _ _ H Hl) as (co & Hco & _). exists co. split; [exact Hco|].
    destruct (fr_keep _ _ _ _ _ _ _ F2 curObj co Hl Hco) as (mo' & Hm' & (E & _) & _). congruence. }
  assert (Hnotin : ~ In curObj (kids g curObj)) by (intros F; eapply (R_child_neq_parent _ _ HR); eauto).
  assert (Htyped_keep : mtyped s g curObj -> mtyped s2 g2 curObj).
  { intros Ht. eapply (mtyped_frame NoP (eq curObj) _ s g s2 g2 curObj Hwf F2 Hl);
      [| |intros i o []|intros i <-; exact Hnnp|intros y (_ & Hin) F; rewrite F in Hin; exact Hin|exact Ht].
    - intros (_ & F). contradiction.
    - right. intros (_ & F). contradiction. }
  destruct (pres_eqb res ROk) eqn:Eres.
  2:{ (* the argument failed, or the field list is done *)
      apply wp_ret. exists g2. split; [exact H2|]. split; [exact HX2|]. split; [exact F2|]. split; [exact Hfi2|].
      split; [lia|]. intros [Hr|Hr]; [subst res; discriminate|].
      pose proof (Hsh1 Hr) as Efl. destruct (Hok1 (or_intror Hr)) as (K1 & K2 & K3).
      assert (Eu : ucost argTy = 0) by (rewrite Efl; reflexivity).
      split; [lia|]. split; [|congruence].
      assert (HTM2 : TM (fun m => (m = curObj /\ nolook argTy = true) \/ m = curObj) s2 g2).
      { apply (TM_pframe_except _ s1 g1 s2 g2 curObj (R_gwf _ _ (fi_R _ _ H1)) K3 Hpf2 Hk2' Hnnp1). }
      intros m mo Hm Hop _. destruct (N.eq_dec m curObj) as [->|Hne]; [|apply (HTM2 m mo Hm Hop); intros [(F & _)|F]; contradiction].
      destruct (Hback mo Hm) as (co & Hco & Eop). rewrite Hop in Eop.
      destruct (Hmb co Hco Eop) as [Ht|(Eaf & Hb)]; [apply Htyped_keep; exact Ht|]. exfalso.
      assert (Hi2 : argIndex <= 2) by (destruct Hb as [(Hi & _)|(Hi & _)]; lia).
      pose proof (method_nolook argIndex Hi2) as Hnl. unfold argTy in Efl. rewrite Eaf in Efl.
      destruct method_row as (_ & _ & _ & E0 & E1 & E2 & _).
      assert (Hc : argIndex = 0 \/ argIndex = 1 \/ argIndex = 2) by lia.
      destruct Hc as [Ec|[Ec|Ec]]; rewrite Ec in Efl; [rewrite E0 in Efl|rewrite E1 in Efl|rewrite E2 in Efl]; discriminate. }
  assert (res = ROk) by (destruct res; try discriminate; reflexivity). subst res. clear Eres.
  destruct (Hok1 (or_introl eq_refl)) as (K1 & K2 & K3).
  assert (Ew : w8 (argIndex + 1) = argIndex + 1) by (unfold w8, two8; apply N.mod_small; lia). rewrite Ew.
  assert (HTM2 : TM (eq curObj) s2 g2).
  { eapply TM_weaken; [|apply (TM_pframe_except _ s1 g1 s2 g2 curObj (R_gwf _ _ (fi_R _ _ H1)) K3 Hpf2 Hk2' Hnnp1)].
    intros m mo _ _ [(E & _)|E]; symmetry; exact E. }
  assert (Hkc2 : kids g2 curObj = kids g curObj ++ (match a with Some x => [x] | None => [] end)).
  { rewrite Hk2. f_equal. destruct (N.eq_dec argTy aml_pArgTypeFieldList) as [E|E].
    - exfalso. exact (Hnfl1 eq_refl E).
    - apply Hkc1; [left; reflexivity|exact E]. }
  (* the Method that is being built advances by one argument *)
  assert (Hmb2 : mbA s2 g2 curObj af (argIndex + 1)).
  { intros co2 Hco2 Hop2. destruct (Hback co2 Hco2) as (co & Hco & Eop). rewrite Hop2 in Eop.
    destruct (Hmb co Hco Eop) as [Ht|(Eaf & Hb)]; [left; apply Htyped_keep; exact Ht|].
    destruct method_row as (_ & _ & _ & E0 & E1 & E2 & _).
    destruct Hb as [(Hi1 & Hk0)|(Hi2 & a0 & a0o & Hk0 & Ha0 & Hn0 & Hop0 & Hii0 & Hkn0)].
    - assert (Hc : argIndex = 0 \/ argIndex = 1) by lia. destruct Hc as [Ec|Ec].
      + assert (Ety : argTy = aml_pArgTypePkgLen) by (unfold argTy; rewrite Eaf, Ec; exact E0).
        rewrite (Hpl1 eq_refl Ety) in Hkc2. rewrite Hk0 in Hkc2. cbn [app] in Hkc2.
        right. split; [exact Eaf|]. left. split; [lia|exact Hkc2].
      + assert (Ety : argTy = aml_pArgTypeNameString) by (unfold argTy; rewrite Eaf, Ec; exact E1).
        destruct (Hns1 eq_refl Ety) as (obj & po & Ea & Hpo & Hnd & Hpop & Hpii & Hpk). rewrite Ea, Hk0 in Hkc2. cbn [app] in Hkc2.
        destruct (proj2 Hpf2 _ _ Hpo) as (po2 & Hpo2 & E2'). destruct (pay_eq_pnv _ _ E2') as (E2p & _).
        assert (Hoc : obj <> curObj).
        { intros E. pose proof Hfr as Hfr'. rewrite Ea in Hfr'. cbn [fresh_root] in Hfr'. apply (proj1 Hfr'). rewrite E. exact Hl. }
        right. split; [exact Eaf|]. right. split; [lia|]. exists obj, po2. split; [exact Hkc2|]. split; [exact Hpo2|].
        split; [eapply nodefer_pnv; eauto|]. destruct E2p as (P1 & P2 & _). split; [congruence|]. split; [congruence|].
        rewrite (Hk2' obj Hoc). exact Hpk.
    - assert (Ety : argTy = aml_pArgTypeByteData) by (unfold argTy; rewrite Eaf, Hi2; exact E2).
      destruct (Hbd1 eq_refl Ety) as (obj & po & v & Ea & Hpo & Hv & Hnd & Hpop & Hpii). rewrite Ea, Hk0 in Hkc2. cbn [app] in Hkc2.
      destruct (proj2 Hpf2 _ _ Hpo) as (po2 & Hpo2 & E2'). destruct (pay_eq_pnv _ _ E2') as (E2p & V2).
      assert (Hla0 : glive g a0) by (apply (Hwf curObj a0); rewrite Hk0; left; reflexivity).
      destruct (fr_keep _ _ _ _ _ _ _ F2 a0 a0o Hla0 Ha0) as (a0o2 & Ha0o2 & E0p & _).
      left. exists a0, obj, [], a0o2, po2, v. split; [exact Hkc2|]. split; [exact Ha0o2|]. split; [eapply nodefer_pnv; eauto|].
      split; [exact Hpo2|]. split; [congruence|]. split; [eapply nodefer_pnv; eauto|].
      assert (Ha0c : a0 <> curObj) by (intros E; apply (R_child_neq_parent _ _ HR curObj a0); [rewrite Hk0; left; reflexivity|exact E]).
      destruct E0p as (Q1 & Q2 & _). destruct E2p as (P1 & P2 & _).
      unfold mx. split; [congruence|]. split; [congruence|]. split; [|split; congruence].
      destruct (fr_kids _ _ _ _ _ _ _ F2 a0 Hla0) as (_ & Hex); [intros (_ & Hin); rewrite Hkn0 in Hin; exact Hin|].
      rewrite Hex; [exact Hkn0|]. intros E. apply Ha0c. symmetry. exact E. }
  assert (Htie2 : forall co, tget (p_tree s2) curObj = Some co -> o_infoIndex co = ii).
  { intros co2 Hco2. destruct (FI_live_get _ _ _ H Hl) as (co & Hco & _).
    destruct (fr_keep _ _ _ _ _ _ _ F2 curObj co Hl Hco) as (co2' & Hco2' & (_ & Ei & _) & _).
    assert (co2' = co2) by congruence. subst. rewrite Ei. apply Htie. exact Hco. }
  assert (H02 : glive g2 0) by (apply (ge_live _ _ G2); exact H0).
  destruct (unpaid argTy) eqn:Eun.
  - (* a term list or byte list is the last argument: the recursive call returns at once *)
    assert (Hlast : argCount af <= argIndex + 1) by (apply (unpaid_last ii op fl af argIndex Hrow Hi8 Eun)).
    assert (Hc1 : cntu af argIndex = 1) by (apply cntu_1; exists argIndex; split; [exact Hi8|split; [lia|exact Eun]]).
    assert (Eu : ucost argTy = 1) by (unfold ucost; rewrite Eun; reflexivity).
    destruct fuel as [|fuel']; cbn [parseArgs]; [apply wp_outOfFuel; exact I|].
    apply N.eqb_neq in Ez. rewrite Ez. apply N.leb_le in Hlast. rewrite Hlast. apply wp_ret.
    exists g2. split; [exact H2|]. split; [exact HX2|]. split; [exact F2|]. split; [exact Hfi2|].
    split; [lia|]. intros _. split; [lia|]. split; [|congruence].
    intros m mo Hm Hop _. destruct (N.eq_dec curObj m) as [E|Hne]; [|apply (HTM2 m mo Hm Hop Hne)]. subst m.
    destruct (Hmb2 mo Hm Hop) as [Ht|(Eaf & Hb)]; [exact Ht|]. exfalso.
    destruct method_row as (_ & _ & Ec & _). rewrite Eaf, Ec in Hlast. apply N.leb_le in Hlast.
    destruct Hb as [(Hi & _)|(Hi & _)]; lia.
  - assert (Eu : ucost argTy = 0) by (unfold ucost; rewrite Eun; reflexivity).
    eapply wp_weaken; [apply (IHargs ii op fl af curObj (argIndex + 1) s2 g2 H2 I2 H02 Hlc2 Hrow)| |].
    + lia.
    + pose proof (cntu_mono af argIndex). unfold roomD in *. lia.
    + intros Hf. eapply has_parent_ext; [exact G2|apply Hflp; exact Hf].
    + exact Htie2.
    + intros Hi9' Hfl1.
      destruct (fieldlist_after_bytedata _ _ _ _ _ Hrow Hi9' Hfl1) as (_ & Hb). replace (argIndex + 1 - 1) with argIndex in Hb by lia.
      destruct (Hbd1 eq_refl Hb) as (obj & po & v & Ea & Hpo & Hv & _). rewrite Ea in Hk2.
      destruct (FI_live_get _ _ _ H2 Hlc2) as (co2 & Hco2 & Hlco2).
      destruct (R_kids _ _ (fi_R _ _ H2) _ _ Hco2 Hlco2) as (_ & Hlast & _).
      rewrite Hk2, last_last in Hlast.
      destruct (proj2 Hpf2 _ _ Hpo) as (po2 & Hpo2 & E2'). destruct (pay_eq_pnv _ _ E2') as ((Eop2 & _) & V2).
      assert (Hlo2 : glive g2 obj).
      { apply ((R_gwf _ _ (fi_R _ _ H2)) curObj obj). rewrite Hk2. apply in_or_app. right. left. reflexivity. }
      destruct (FI_live_get _ _ _ H2 Hlo2) as (po2' & Hpo2' & Hlpo2). assert (po2' = po2) by congruence. subst po2'.
      exists co2, po2, v. split; [exact Hco2|]. rewrite Hlast. split; [exact Hpo2|]. split; [exact Hlpo2|congruence].
    + exact HTM2.
    + exact Hmb2.
    + auto.
    + intros res s3 (g3 & H3 & X3 & F3 & Hfi3 & HP3 & Hok3). exists g3. split; [exact H3|].
      split; [eapply ExtD_trans; eauto|].
      split.
      { eapply Fr_trans; [exact F2|exact F3|apply (ge_live _ _ G2)|auto|auto|].
        intros y Hy (Hf & Hin). split; [exact Hf|]. apply (ge_old _ _ G2 y curObj Hin Hl). }
      split.
      { eapply finsert_trans; [exact Hfi2|exact Hfi3|apply (ge_live _ _ G2)|].
        apply (Fr_carry _ _ _ g s2 g2 s3 g3 F3 (xd_g _ _ _ _ X3)).
        - intros x <-. exact Hl.
        - intros y (_ & Hin) E. rewrite E in Hin. exact Hin. }
      split; [lia|]. intros Hr. destruct (Hok3 Hr) as (L1 & L2 & L3). pose proof (cntu_mono af argIndex).
      split; [lia|]. split; [exact L2|congruence].
Qed.
End StepG.
