(** Three judgements of the first and the deferred pass, instances of [first_pass_runs]: no function changes the table handle
    ([hsame]) or the parse mode p_allBlocks ([msame]), and in the mode of the deferred pass none creates a
    pOpIntNamePathOrMethodCall object ([nnp]). *)
From Coq Require Import NArith Arith List Bool Lia.
From FF Require Import Lib.Word Gen.Consts_device_acpi_aml Aml.Stream Aml.Lex Aml.Tree Aml.Parser Aml.TreeSpec Aml.TreeProofs
  Aml.ParserTotalTree Aml.ParserTotalTree2 Aml.ParserTotalRuns Aml.ParserTotalBase Aml.ParserTotalLeaf Aml.ParserTotalFrame.
Import ListNotations.
Local Open Scope N_scope.

Definition hsame {A} (m : M A) : Prop := forall s a s', m s = Ok (a, s') -> p_handle s' = p_handle s.

Lemma hsame_trans (s1 s2 s3 : pstate) : p_handle s2 = p_handle s1 -> p_handle s3 = p_handle s2 -> p_handle s3 = p_handle s1.
Proof. congruence. Qed.

Lemma hsame_bind {A B} (m : M A) (f : A -> M B) : hsame m -> (forall a, hsame (f a)) -> hsame (bindM m f).
Proof. exact (runs_bind _ hsame_trans m f). Qed.
Lemma hsame_if {A} (b : bool) (m1 m2 : M A) : hsame m1 -> hsame m2 -> hsame (if b then m1 else m2).
Proof. destruct b; auto. Qed.
Lemma hsame_inert {A} (m : M A) : runs inert m -> hsame m.
Proof. apply runs_weaken. intros s s' Q. apply Q. Qed.
Lemma hsame_tu (f : T -> outcome T) : hsame (tu f).
Proof. apply runs_step. intros s. unfold tu. destruct (f (p_tree s)); [reflexivity|exact I|exact I]. Qed.
Lemma hsame_newObj op : hsame (newObj op).
Proof. apply runs_step. intros s. unfold newObj. destruct (newObject (p_tree s) op (p_handle s)) as [[t p]| |]; [reflexivity|exact I|exact I]. Qed.
Lemma hsame_upd (f : pstate -> pstate) : (forall s, p_handle (f s) = p_handle s) -> hsame (fun s => Ok (tt, f s)).
Proof. intros Hf. apply runs_step. exact Hf. Qed.

Ltac hsame_unf :=
  unfold rq, offsetM, eofM, curTable, rdf, rdo, wrf, objectAt, objectAt', appendM, detachM,
         setOffsetM, pushPkgEnd, bytesOf, scopeCurrent, methodArgCountPanic, streamFuel, fieldByte.

Ltac hsame_tac :=
  repeat lazymatch goal with
  | |- hsame (bindM _ _) => apply hsame_bind; [|intros ?]
  | |- hsame (match ?x with _ => _ end) => first [apply hsame_if | destruct x]
  | |- hsame _ => first [ (apply hsame_inert; inert_prim) | apply hsame_tu | apply hsame_newObj | (apply hsame_upd; intros; reflexivity) ]
  end.

Lemma hsame_steps : steps (fun s s' => p_handle s' = p_handle s) (fun _ => True).
Proof. apply (field_steps p_handle); [intros s s' Q; apply Q|reflexivity]. Qed.

Lemma parseSimpleArg_hsame ty : hsame (parseSimpleArg ty).
Proof. exact (parseSimpleArg_runs _ _ hsame_steps ty). Qed.
Lemma parseFieldElements_hsame curObj : hsame (parseFieldElements curObj).
Proof. exact (parseFieldElements_runs _ _ hsame_steps curObj). Qed.
Lemma parseObjectArgs_hsame fuel c : hsame (parseObjectArgs fuel c).
Proof. apply (first_pass_runs _ _ hsame_steps (fun _ _ _ _ _ => eq_refl) (fun _ _ _ _ => I) fuel). Qed.

Lemma popAll_go_hsame fuel : hsame (popAll_go fuel).
Proof. exact (popAll_go_runs _ _ hsame_steps fuel). Qed.

Definition msame {A} (m : M A) : Prop := forall s a s', m s = Ok (a, s') -> p_allBlocks s' = p_allBlocks s.

Lemma msame_tu (f : T -> outcome T) : msame (tu f).
Proof. apply runs_step. intros s. unfold tu. destruct (f (p_tree s)); [reflexivity|exact I|exact I]. Qed.
Lemma msame_newObj op : msame (newObj op).
Proof. apply runs_step. intros s. unfold newObj. destruct (newObject (p_tree s) op (p_handle s)) as [[t p]| |]; [reflexivity|exact I|exact I]. Qed.

Lemma msame_steps : steps (fun s s' => p_allBlocks s' = p_allBlocks s) (fun _ => True).
Proof. apply (field_steps p_allBlocks); [intros s s' Q; apply Q|reflexivity]. Qed.

Lemma parseByteList_msame obj n : msame (parseByteList obj n).
Proof. exact (parseByteList_runs _ _ msame_steps obj n). Qed.
Lemma parseSimpleArg_msame ty : msame (parseSimpleArg ty).
Proof. exact (parseSimpleArg_runs _ _ msame_steps ty). Qed.
Lemma parseObjectArgs_msame fuel c : msame (parseObjectArgs fuel c).
Proof. apply (first_pass_runs _ _ msame_steps (fun _ _ _ _ _ => eq_refl) (fun _ _ _ _ => I) fuel). Qed.

Lemma popAll_go_msame fuel : msame (popAll_go fuel).
Proof. exact (popAll_go_runs _ _ msame_steps fuel). Qed.

(** ---- in the mode of the deferred pass no pOpIntNamePathOrMethodCall object appears ---- *)
Definition NN (s s' : pstate) : Prop :=
  forall i o, tget (p_tree s') i = Some o -> o_opcode o = aml_pOpIntNamePathOrMethodCall ->
    exists o0, tget (p_tree s) i = Some o0 /\ o_opcode o0 = aml_pOpIntNamePathOrMethodCall.

Definition nnp {A} (m : M A) : Prop :=
  forall s a s', m s = Ok (a, s') -> p_allBlocks s = true -> p_allBlocks s' = true /\ NN s s'.

(** nextOpcode never accepts the internal opcode pOpIntNamePathOrMethodCall (its row in the lookup map is badOpcode) *)
Lemma nextOpcode_not_npc r op r' : nextOpcode r = Ok (op, true, r') -> op <> aml_pOpIntNamePathOrMethodCall.
Proof.
  unfold nextOpcode. destruct (readByte r) as [[nx r1]| |]; cbn [bind]; try discriminate.
  destruct nx as [next|]; [|discriminate].
  assert (K : forall o l rr, match opcodeTableIndex o false with
                             | None => Panic
                             | Some idx => if idx =? aml_badOpcode then Ok (0xffff, false, setOffset rr (w32 (r_offset rr + two32 - l)))
                                           else Ok (o, true, rr) end = Ok (op, true, r') -> op <> aml_pOpIntNamePathOrMethodCall).
  { intros o l rr H. destruct (opcodeTableIndex o false) as [idx|] eqn:E; [|discriminate].
    destruct (idx =? aml_badOpcode) eqn:Eb; [discriminate|]. inversion H; subst. intros F. rewrite F in E. vm_compute in E.
    inversion E; subst idx. vm_compute in Eb. discriminate. }
  destruct (next =? aml_extOpPrefix).
  - destruct (readByte r1) as [[nx2 r2]| |]; cbn [bind]; try discriminate. destruct nx2 as [next2|]; [|discriminate]. apply K.
  - apply K.
Qed.

Lemma peekNextOpcode_not_npc r op r' : peekNextOpcode r = Ok (op, true, r') -> op <> aml_pOpIntNamePathOrMethodCall.
Proof. intros H. destruct (peek_of_next _ _ _ _ H) as (r1 & E). exact (nextOpcode_not_npc _ _ _ E). Qed.

Lemma npc_not_named : ~ In aml_pOpIntNamePathOrMethodCall named_opcodes.
Proof. cbn [In named_opcodes]. intros H. decompose [or] H; try contradiction; discriminate. Qed.

Lemma nnp_steps :
  steps (fun s s' => p_allBlocks s = true -> p_allBlocks s' = true /\ NN s s') (fun op => op <> aml_pOpIntNamePathOrMethodCall).
Proof.
  pose proof (no_new_steps _ npc_not_named) as K. constructor.
  - intros s Hmd. split; [exact Hmd|exact (st_refl _ _ K s)].
  - intros s1 s2 s3 A B Hmd. destruct (A Hmd) as (M1 & N1). destruct (B M1) as (M2 & N2). split; [exact M2|exact (st_trans _ _ K _ _ _ N1 N2)].
  - intros s s' Q Hmd. split; [rewrite (proj1 (proj2 (proj2 Q))); exact Hmd|exact (st_inert _ _ K _ _ Q)].
  - intros s opc t p Hne E Hmd. split; [exact Hmd|exact (st_new _ _ K _ _ _ _ Hne E)].
  - intros s p f t Hf E Hmd. split; [exact Hmd|exact (st_wr _ _ K _ _ _ _ Hf E)].
  - intros s p op t Hne E Hmd. split; [exact Hmd|exact (st_wr_opcode _ _ K _ _ _ _ Hne E)].
  - intros s t Hp Hmd. split; [exact Hmd|exact (st_link _ _ K _ _ Hp)].
  - exact (st_named _ _ K).
Qed.

Lemma nnp_bind {A B} (m : M A) (f : A -> M B) : nnp m -> (forall a, nnp (f a)) -> nnp (bindM m f).
Proof. exact (runs_bind _ (st_trans _ _ nnp_steps) m f). Qed.
Lemma nnp_if {A} (b : bool) (m1 m2 : M A) : nnp m1 -> nnp m2 -> nnp (if b then m1 else m2).
Proof. destruct b; auto. Qed.
Lemma nnp_inert {A} (m : M A) : runs inert m -> nnp m.
Proof. apply runs_weaken. exact (st_inert _ _ nnp_steps). Qed.

Lemma notree_upd (f : pstate -> pstate) : (forall s, p_tree (f s) = p_tree s) -> notree (fun s => Ok (tt, f s)).
Proof. intros Hf. apply runs_step. exact Hf. Qed.

Ltac notree_prim2 := first [ (apply notree_inert; inert_prim) | (apply notree_upd; intros; reflexivity) ].

Ltac nnp_unf :=
  unfold rq, offsetM, eofM, curTable, rdf, rdo, objectAt, objectAt', appendM, detachM,
         setOffsetM, pushPkgEnd, bytesOf, scopeCurrent, methodArgCountPanic, streamFuel, fieldByte.

Ltac nnp_tac :=
  repeat lazymatch goal with
  | |- nnp (bindM _ _) => apply nnp_bind; [|intros ?]
  | |- nnp (match ?x with _ => _ end) => first [apply nnp_if | destruct x]
  | |- nnp _ => apply nnp_inert; inert_prim
  end.

Lemma parseObjectArgs_nnp fuel c : nnp (parseObjectArgs fuel c).
Proof. apply (first_pass_runs _ _ nnp_steps); [intros s t p Hmd _ Hmd'; congruence|exact nextOpcode_not_npc]. Qed.

Lemma popAll_go_nnp fuel : nnp (popAll_go fuel).
Proof. exact (popAll_go_runs _ _ nnp_steps fuel). Qed.
