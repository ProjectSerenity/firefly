(** C11 (two-table fragment T2F7): the recogniser [in_fragment_T2F7] of programs of TWO tables with the items of F7, and
    [parse_encode_T2F7], the instance of [parse_encode_two] (ParserFragF3Final.v) for them.

    As T2 (see ParserFragT2Final.v), with the items of the fragment F7 in both tables: in addition to T2, Name declarations
    whose value is a string or a package of integer constants and strings.  The first table has no Scope directives;
    the second table may have Scope(\SEG) / Scope(SEG) directives over the predefined scopes at its top level. *)
From Coq Require Import NArith List Bool.
From FF Require Import Aml.Grammar Aml.WfProgram Aml.ParserFragF0 Aml.ParserFragArgs Aml.ParserFragF1
  Aml.ParserFragF1Final Aml.ParserFragScope Aml.ParserFragF3Final Aml.ParserFragF7Final.
Import ListNotations.
Local Open Scope N_scope.

Definition in_fragment_T2F7 (tables : list (list ast)) : bool :=
  match tables with
  | [p1; p2] =>
      match f7_items p1, f7_titems p2 with
      | Some _, Some _ => (lenN (encode_table p1) <? 0x10000000) && (lenN (encode_table p2) <? 0x10000000)
      | _, _ => false
      end
  | _ => false
  end.

Theorem parse_encode_T2F7 : forall tables,
  wf_program tables = true -> in_fragment_T2F7 tables = true -> parse_encode_statement tables.
Proof. exact (parse_encode_two f7_item f7_item_ast). Qed.
