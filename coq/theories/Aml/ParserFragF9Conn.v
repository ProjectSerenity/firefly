(** C11 (fragments F1 .. F9): connectNamedObjArgs turns the first-pass tree [lay1] into [lay2]
    (names set, the value of every Name moved below it; statements and their operands are stepped over).
    [CSp bs n cf cl ok T1 T2] says what the loop of the pass does on a run of children of an object that the first pass
    built from the stretch [bs] of the table; runs compose ([csp_app]: the loop walks from the last child to the first,
    so the later run is done first and the earlier one sees its frame), and every item is proved for its own run
    ([CSpec1], with the description of the result in [post2_blk] / [post2_leaf] / [post2_pkg]). *)
From Coq Require Import NArith ZArith Arith List Bool Lia.
From Coq Require Import ZifyBool ZifyN ZifyNat.
From FF Require Import Lib.Word Gen.Consts_device_acpi_aml Gen.Consts_aml_tree Aml.Stream Aml.Lex Aml.LexProofs
  Aml.Tree Aml.TreeSpec Aml.TreeProofs Aml.TreeProofsOps Aml.TreeProofsFind Aml.Parser Aml.Grammar Aml.LexRoundtrip
  Aml.ParserTotalTree Aml.ParserTotalBase
  Aml.ParserFragBase Aml.ParserFragFirst Aml.ParserFragF0 Aml.ParserFragF0Shape Aml.ParserFragConn Aml.ParserFragF0Conn Aml.ParserFragWalk
  Aml.ParserFragF0Top Aml.ParserFragRose Aml.ParserFragDev Aml.ParserFragArgs Aml.ParserFragMerge Aml.ParserFragF9 Aml.ParserFragF9First.
Import ListNotations.
Local Open Scope N_scope.

(** children contributed to the enclosing scope after the first pass / fuel of the pass *)
Fixpoint clen (l : list item) : nat :=
  match l with [] => O | IName _ :: t => S (S (clen t)) | IBlk _ _ _ _ _ :: t => S (clen t)
               | ILeaf _ _ _ ta :: t => S (length ta + clen t) | IPkg _ _ _ _ :: t => S (S (clen t))
               | IStmt _ ta :: t => S (length ta + clen t) end.

Fixpoint cfuel_item (it : item) : nat :=
  match it with IName _ => 2%nat
              | IBlk bk _ _ fa body => (6 + length (bfx bk fa) + fold_right (fun x n => (cfuel_item x + n)%nat) O body)%nat
              | ILeaf lk _ fa ta => (8 + length (lfx lk fa) + 2 * length ta)%nat
              | IPkg _ _ _ elems => (16 + 3 * pels_sz elems)%nat
              | IStmt _ ta => (1 + length ta)%nat end.
Definition cfuel (l : list item) : nat := fold_right (fun x n => (cfuel_item x + n)%nat) O l.
Lemma cfuel_cons x t : cfuel (x :: t) = (cfuel_item x + cfuel t)%nat. Proof. reflexivity. Qed.
Lemma cfuel_blk bk k seg fa body : cfuel_item (IBlk bk k seg fa body) = (6 + length (bfx bk fa) + cfuel body)%nat. Proof. reflexivity. Qed.

Lemma cfuel_leaf lk seg fa ta : cfuel_item (ILeaf lk seg fa ta) = (8 + length (lfx lk fa) + 2 * length ta)%nat. Proof. reflexivity. Qed.

Lemma cfuel_pkg seg k n elems : cfuel_item (IPkg seg k n elems) = (16 + 3 * pels_sz elems)%nat. Proof. reflexivity. Qed.

Lemma clen_le_cfuel l : (clen l <= cfuel l)%nat.
Proof. induction l as [|[d|bk k seg fa body|lk seg fa ta|seg k n elems|sk ta] t IH]; [cbn; lia| | | | |]; rewrite cfuel_cons; cbn [clen]; [cbn [cfuel_item]|rewrite cfuel_blk|rewrite cfuel_leaf|rewrite cfuel_pkg|cbn [cfuel_item]]; lia. Qed.

Lemma lay2_cons h tbl b off x t : lay2 h tbl b off (x :: t) = lay2_item h tbl b off x ++ lay2 h tbl (b + N.of_nat (isz x)) (off + lenN (enc_item x)) t.
Proof. reflexivity. Qed.

Lemma lay2_nodes h tbl : forall l b off x, In x (rnodesl (lay2 h tbl b off l)) -> b <= x < b + N.of_nat (iszs l).
Proof.
  induction l as [|d rest IH|bk k seg fa body rest IHb IH|lk seg fa ta rest IH|seg k n elems rest IH|sk ta rest IH] using items_ind; intros b off x Hx; [contradiction| | | | |].
  5:{ rewrite lay2_cons, rnodesl_app in Hx. rewrite iszs_cons, isz_stmt. apply in_app_or in Hx. destruct Hx as [Hx|Hx].
      - cbn [lay2_item] in Hx. unfold rnodesl in Hx. cbn [flat_map] in Hx. rewrite rnodes_eq in Hx. cbn [rnodesl flat_map app In] in Hx.
        fold (rnodesl (leaf_row (b + 1) (cst_pays h tbl (off + slo sk) ta))) in Hx.
        destruct Hx as [<-|Hx]; [lia|]. apply leaf_row_nodes in Hx. rewrite len_cst_pays in Hx. lia.
      - apply IH in Hx. rewrite isz_stmt in Hx. lia. }
  - rewrite lay2_cons, rnodesl_app in Hx. rewrite iszs_cons. apply in_app_or in Hx. destruct Hx as [Hx|Hx].
    + cbn [lay2_item rnodesl flat_map rnodes app In] in Hx. cbn [isz]. lia.
    + apply IH in Hx. cbn [isz] in *. lia.
  - rewrite lay2_cons, rnodesl_app in Hx. rewrite iszs_cons, isz_blk. apply in_app_or in Hx. destruct Hx as [Hx|Hx].
    + rewrite lay2_blk in Hx. unfold rnodesl in Hx. cbn [flat_map] in Hx. rewrite app_nil_r, rnodes_eq in Hx.
      destruct Hx as [<-|Hx]; [lia|]. rewrite rnodesl_app in Hx. apply in_app_or in Hx. destruct Hx as [Hx|Hx].
      * apply leaf_row_nodes in Hx. rewrite len_hd_pays in Hx. lia.
      * unfold rnodesl in Hx. cbn [flat_map] in Hx. rewrite app_nil_r, rnodes_eq in Hx. unfold nfx in Hx.
        destruct Hx as [<-|Hx]; [lia|]. apply IHb in Hx. lia.
    + apply IH in Hx. rewrite isz_blk in Hx. lia.
  - rewrite lay2_cons, rnodesl_app in Hx. rewrite iszs_cons, isz_leaf. apply in_app_or in Hx. destruct Hx as [Hx|Hx].
    + cbn [lay2_item] in Hx. unfold rnodesl in Hx. cbn [flat_map] in Hx. rewrite app_nil_r, rnodes_eq in Hx.
      destruct Hx as [<-|Hx]; [lia|]. apply leaf_row_nodes in Hx. rewrite app_length, len_lhd_pays, len_cst_pays in Hx. lia.
    + apply IH in Hx. rewrite isz_leaf in Hx. lia.
  - rewrite lay2_cons, rnodesl_app in Hx. rewrite iszs_cons, isz_pkg. apply in_app_or in Hx. destruct Hx as [Hx|Hx].
    + cbn [lay2_item] in Hx. unfold rnodesl in Hx. cbn [flat_map] in Hx. rewrite app_nil_r, rnodes_eq in Hx.
      destruct Hx as [<-|Hx]; [lia|]. unfold rnodesl in Hx. cbn [flat_map] in Hx. rewrite app_nil_r in Hx. apply in_app_or in Hx.
      destruct Hx as [Hx|Hx]; [rewrite rnodes_eq in Hx; cbn [rnodesl flat_map In] in Hx; lia|apply pkg_tree_nodes in Hx; lia].
    + apply IH in Hx. rewrite isz_pkg in Hx. lia.
Qed.

(** what the pass does to a range of slots *)
Record Post2 (g : ghost) (pl : list pay) (g' : ghost) (pl' : list pay) (x b : N) (n : nat) (pre post : list N) (trees : list rose) : Prop := mkPost2 {
  q_x : kids g' x = pre ++ map ridx trees ++ post;
  q_desc : Forall (Desc g' pl') trees;
  q_out_k : forall y, (y < b \/ b + N.of_nat n <= y) -> y <> x -> kids g' y = kids g y;
  q_out_p : forall y, (y < b \/ b + N.of_nat n <= y) -> pget pl' y = pget pl y
}.

Lemma kids2 g x A c B y : x < N.of_nat (length (g_kids g)) -> c < N.of_nat (length (g_kids g)) ->
  kids (set_kids (set_kids g x A) c B) y = if y =? c then B else if y =? x then A else kids g y.
Proof.
  intros Hx Hc. rewrite kids_set_kids by (rewrite len_set_kids; exact Hc). rewrite kids_set_kids by exact Hx. reflexivity.
Qed.

Lemma slice_at s tbls tbl data a b c : p_tables s = tbls -> nth_error tbls (N.to_nat tbl) = Some data -> data = a ++ b ++ c ->
  lenN b = 4 -> slice_bytes s tbl (mkSlice (Some (lenN a)) 4) = Ok b.
Proof.
  intros Ht Hn Hd Hb. unfold slice_bytes. cbn [s_len s_ptr]. change (4 =? 0) with false. cbv iota. rewrite Ht, Hn, Hd.
  replace (N.to_nat (lenN a)) with (length a) by (unfold lenN; lia).
  replace (N.to_nat 4) with (length b) by (unfold lenN in Hb; lia). rewrite take_bytes_app. reflexivity.
Qed.

Lemma seg_bytes_nm seg : seg_bytes seg = [N.land (N.shiftr seg 24) 0xff; N.land (N.shiftr seg 16) 0xff; N.land (N.shiftr seg 8) 0xff; N.land seg 0xff].
Proof. reflexivity. Qed.

Lemma const_row' op : is_constb op = true -> exists row, opInfo (const_info op) = Some row /\ op <> opFreed.
Proof.
  intros Hc. destruct (is_constb_cases _ Hc) as [E|[E|[E|[E|[E|[E|E]]]]]]; rewrite E; (eexists; split; [reflexivity|discriminate]).
Qed.

Lemma last_app_two' {A} (l : list A) x y d : last (l ++ [x; y]) d = y.
Proof. replace (l ++ [x; y]) with ((l ++ [x]) ++ [y]) by (rewrite <- app_assoc; reflexivity). apply last_last. Qed.

(** ---- moving a run of siblings below the target ---- *)

Lemma attach_go_any : forall cs up f obj tg l1 l2 ao atg s g pl (Q : pres -> pstate -> Prop),
  Rep (p_tree s) g pl -> kids g obj = l1 ++ tg :: cs ++ l2 ->
  (forall c, In c cs -> ~ desc g c tg /\ exists ac, pget pl c = Some ac /\ y_op ac <> opFreed) ->
  pget pl obj = Some ao -> y_op ao <> opFreed -> pget pl tg = Some atg -> y_op atg <> opFreed ->
  (forall t' g', Rep t' g' pl -> length (g_kids g') = length (g_kids g) ->
     (forall y, kids g' y = if y =? tg then kids g tg ++ cs else if y =? obj then l1 ++ tg :: l2 else kids g y) ->
     Q ROk (with_tree s t')) ->
  wp False (attachSiblings_go (length cs + S f) obj tg (hd InvalidIndex (cs ++ l2)) (N.of_nat (length cs)) up) s Q.
Proof.
  induction cs as [|c cs IH]; intros up f obj tg l1 l2 ao atg s g pl Q H Hk Hcs Hao Hlo Hatg Hltg K.
  - cbn [length Nat.add]. rewrite attachSiblings_go_S. change (N.of_nat 0 =? 0) with true. cbv iota. apply wp_ret.
    assert (E : with_tree s (p_tree s) = s) by (destruct s; reflexivity). rewrite <- E. apply (K (p_tree s) g H eq_refl).
    intros y. rewrite app_nil_r. cbn [app] in Hk. destruct (N.eqb_spec y tg) as [->|]; [reflexivity|]. destruct (N.eqb_spec y obj) as [->|]; [exact Hk|reflexivity].
  - pose proof (rep_R _ _ _ H) as HR. cbn [length app hd] in *.
    destruct (Hcs c (or_introl eq_refl)) as (Hndc & ac & Hac & Hlc).
    change (S (length cs) + S f)%nat with (S (length cs + S f)). rewrite attachSiblings_go_S.
    assert (En : N.of_nat (S (length cs)) =? 0 = false) by (apply N.eqb_neq; lia). rewrite En. rewrite (rep_not_Inv _ _ _ _ _ H Hac). cbn [andb].
    apply wp_bind. apply wp_ret. rewrite (rep_not_Inv _ _ _ _ _ H Hac).
    apply wp_bind. unfold objectAt. apply wp_get. rewrite (rep_ObjectAt _ _ _ H _ _ Hac Hlc).
    apply wp_bind. apply wp_need.
    assert (Hk2 : kids g obj = (l1 ++ [tg]) ++ c :: (cs ++ l2)) by (rewrite <- app_assoc; exact Hk).
    apply wp_bind. eapply (wp_rdf_sib False obj (l1 ++ [tg]) c (cs ++ l2)); [exact H|exact Hk2|]. intros o1 _ _ _ Hnext _. rewrite Hnext.
    apply wp_bind. eapply (wp_rdf_sib False obj (l1 ++ [tg]) c (cs ++ l2)); [exact H|exact Hk2|]. intros o2 _ Hpar _ _ _. rewrite Hpar.
    apply wp_bind. unfold objectAt. apply wp_get. rewrite (rep_ObjectAt _ _ _ H _ _ Hao Hlo).
    assert (Hin_c : In c (kids g obj)) by (rewrite Hk2; apply in_or_app; right; left; reflexivity).
    assert (Hin_t : In tg (kids g obj)) by (rewrite Hk; apply in_or_app; right; left; reflexivity).
    assert (Hlive_o : glive g obj) by (eapply rep_live; eauto).
    assert (Hlive_t : glive g tg) by (eapply rep_live; eauto).
    assert (Hlive_c : glive g c) by (eapply rep_live; eauto).
    assert (Hnd : NoDup (kids g obj)).
    { destruct (rep_obj _ _ _ H _ _ Hao Hlo) as (oo & Hoo & Epay & _).
      assert (Hloo : o_opcode oo <> opFreed) by (rewrite (pay_op _ _ Epay); exact Hlo).
      destruct (R_kids _ _ HR _ _ Hoo Hloo) as (_ & _ & _ & Hnd). exact Hnd. }
    assert (Hnotin : ~ In c ((l1 ++ [tg]) ++ cs ++ l2)) by (apply NoDup_mid_notin; rewrite <- Hk2; exact Hnd).
    assert (Hrem : remove1 c (kids g obj) = l1 ++ tg :: cs ++ l2).
    { rewrite Hk2, remove1_split; [rewrite <- app_assoc; reflexivity|]. intros Hi. apply Hnotin. apply in_or_app. left. exact Hi. }
    apply wp_bind. eapply wp_detach_rep; [exact H|exact Hin_c|]. intros t1 H1. rewrite Hrem in H1.
    set (g1 := set_kids g obj (l1 ++ tg :: cs ++ l2)) in *.
    assert (Holt : obj < N.of_nat (length (g_kids g))) by (apply glive_lt; exact Hlive_o).
    assert (Htlt : tg < N.of_nat (length (g_kids g))) by (apply glive_lt; exact Hlive_t).
    assert (Hne_to : tg <> obj) by (eapply (R_child_neq_parent _ _ HR); eauto).
    assert (Hne_co : c <> obj) by (eapply (R_child_neq_parent _ _ HR); eauto).
    assert (Hne_ct : c <> tg).
    { intros E. apply Hnotin. rewrite E. apply in_or_app. left. apply in_or_app. right. left. reflexivity. }
    assert (Hk1 : forall q, kids g1 q = if q =? obj then l1 ++ tg :: cs ++ l2 else kids g q).
    { intros q. unfold g1. apply kids_set_kids. exact Holt. }
    assert (Hroot1 : groot g1 c).
    { intros q Hq. rewrite Hk1 in Hq. destruct (N.eqb_spec q obj) as [E|Hne].
      - apply Hnotin. rewrite <- app_assoc. exact Hq.
      - apply Hne. eapply (R_parent_unique _ _ HR); eauto. }
    assert (Hsub1 : forall v c', v <> tg -> In c' (kids g1 v) -> In c' (kids g v)).
    { intros v c' _ Hc'. rewrite Hk1 in Hc'. destruct (N.eqb_spec v obj) as [->|_]; [|exact Hc'].
      rewrite Hk. apply in_app_or in Hc'. apply in_or_app. destruct Hc' as [Hc'|Hc']; [left; exact Hc'|right].
      destruct Hc' as [<-|Hc']; [left; reflexivity|right; right; exact Hc']. }
    assert (Hnd1 : ~ desc g1 c tg).
    { intros Hd. destruct (desc_redirect' g g1 tg c Hsub1 tg Hd) as [A|A]; exact (Hndc A). }
    apply wp_bind. eapply (wp_append_rep False tg c _ g1 pl); [exact H1|apply glive_set_kids; exact Hlive_t|apply glive_set_kids; exact Hlive_c|exact Hroot1|exact Hnd1|].
    intros t2 H2. rewrite Hk1 in H2. assert (Eto : tg =? obj = false) by (apply N.eqb_neq; exact Hne_to). rewrite Eto in H2.
    set (g2 := set_kids g1 tg (kids g tg ++ [c])) in *.
    assert (Hk2' : forall q, kids g2 q = if q =? tg then kids g tg ++ [c] else if q =? obj then l1 ++ tg :: cs ++ l2 else kids g q).
    { intros q. unfold g2. rewrite kids_set_kids by (unfold g1; rewrite len_set_kids; exact Htlt). rewrite Hk1. reflexivity. }
    replace (N.of_nat (S (length cs)) - 1) with (N.of_nat (length cs)) by lia.
    assert (Eot : obj =? tg = false) by (apply N.eqb_neq; congruence).
    eapply (IH up f obj tg l1 l2 ao atg _ g2 pl Q); [exact H2| | |exact Hao|exact Hlo|exact Hatg|exact Hltg|].
    + rewrite Hk2', Eot, N.eqb_refl. reflexivity.
    + intros c' Hc'. destruct (Hcs c' (or_intror Hc')) as (Hndc' & Hp'). split; [|exact Hp'].
      intros Hd. assert (Hsub2 : forall v c0, v <> tg -> In c0 (kids g2 v) -> In c0 (kids g v)).
      { intros v c0 Hv Hc0. rewrite Hk2' in Hc0. apply N.eqb_neq in Hv. rewrite Hv in Hc0. apply N.eqb_neq in Hv.
        apply (Hsub1 v c0 Hv). rewrite Hk1. exact Hc0. }
      destruct (desc_redirect' g g2 tg c' Hsub2 tg Hd) as [A|A]; exact (Hndc' A).
    + intros t' g' H' Hlen' Hk'. apply (K t' g' H').
      * rewrite Hlen'. unfold g2, g1. rewrite !len_set_kids. reflexivity.
      * intros y. rewrite Hk', !Hk2', N.eqb_refl. destruct (N.eqb_spec y tg); [rewrite <- app_assoc; reflexivity|].
        destruct (N.eqb_spec y obj); reflexivity.
Qed.

Lemma attach_go : forall cs f obj tg l1 l2 ao atg s g pl (Q : pres -> pstate -> Prop),
  Rep (p_tree s) g pl -> kids g obj = l1 ++ tg :: cs ++ l2 ->
  (forall c, In c cs -> ~ desc g c tg /\ exists ac, pget pl c = Some ac /\ y_op ac <> opFreed) ->
  pget pl obj = Some ao -> y_op ao <> opFreed -> pget pl tg = Some atg -> y_op atg <> opFreed ->
  (forall t' g', Rep t' g' pl -> length (g_kids g') = length (g_kids g) ->
     (forall y, kids g' y = if y =? tg then kids g tg ++ cs else if y =? obj then l1 ++ tg :: l2 else kids g y) ->
     Q ROk (with_tree s t')) ->
  wp False (attachSiblings_go (length cs + S f) obj tg (hd InvalidIndex (cs ++ l2)) (N.of_nat (length cs)) false) s Q.
Proof. exact (fun cs => attach_go_any cs false). Qed.

(** a run of childless children in the middle of the child list is stepped over *)
Lemma conn_leaves_mid : forall D1 f obj L D2 s g pl (Q : pres -> pstate -> Prop),
  Rep (p_tree s) g pl -> kids g obj = L ++ D1 ++ D2 ->
  (forall d, In d D1 -> kids g d = [] /\ exists a row, pget pl d = Some a /\ y_op a <> opFreed /\ opInfo (y_info a) = Some row) ->
  wp False (connectNamed_loop (S (S f)) obj (last L InvalidIndex)) s Q ->
  wp False (connectNamed_loop (length D1 + S (S f)) obj (last (L ++ D1) InvalidIndex)) s Q.
Proof.
  induction D1 as [|x D1 IH] using rev_ind; intros f obj L D2 s g pl Q H Hk Hall K.
  - cbn [length Nat.add]. rewrite app_nil_r. exact K.
  - rewrite app_length. cbn [length]. replace (length D1 + 1 + S (S f))%nat with (S (S (S (length D1 + f))))%nat by lia.
    rewrite app_assoc, last_last. destruct (Hall x) as (Hkx & a & row & Ha & Hl & Hrow); [apply in_or_app; right; left; reflexivity|].
    assert (Hk' : kids g obj = (L ++ D1) ++ x :: D2) by (rewrite Hk, <- !app_assoc; reflexivity).
    eapply (CNloop_leaf _ obj x (L ++ D1) D2 a row); [exact H|exact Hk'|exact Ha|exact Hl|exact Hkx|exact Hrow|].
    replace (S (S (length D1 + f)))%nat with (length D1 + S (S f))%nat by lia.
    eapply (IH f obj L (x :: D2)); [exact H|rewrite Hk, <- !app_assoc; reflexivity| |exact K].
    intros d Hd. apply Hall. apply in_or_app. left. exact Hd.
Qed.

(** ---- connectNamedObjArgs over objects that are not named objects of the table being loaded ---- *)
Definition conn_ok (g : ghost) (h : N) (y : N) (a : pay) : Prop :=
  exists op flags af, opInfo (y_info a) = Some (op, flags, af) /\
    negb (hasFlag flags aml_pOpFlagNamed) || negb (y_th a =? h) || (hd InvalidIndex (kids g y) =? InvalidIndex) || (y_op a =? aml_pOpIntScopeBlock) = true.

Section ConnS.
Variable g : ghost.
Variable pl : list pay.
Variable h : N.
Variable S : N -> Prop.
Hypothesis Sclosed : forall y c, S y -> In c (kids g y) -> S c.
Hypothesis Hall : forall y a, S y -> pget pl y = Some a -> y_op a <> opFreed -> conn_ok g h y a.

Definition CWs (f : nat) : Prop := forall x a s, Rep (p_tree s) g pl -> p_handle s = h -> S x ->
  pget pl x = Some a -> y_op a <> opFreed -> fwalkb g f x ->
  wp False (connectNamedObjArgs f x) s (fun r s' => r = ROk /\ s' = s).

Definition CLs (f : nat) : Prop := forall p lr l2 s, Rep (p_tree s) g pl -> p_handle s = h ->
  kids g p = rev lr ++ l2 -> (forall c, In c lr -> S c) -> floopb g f lr ->
  wp False (connectNamed_loop f p (hd InvalidIndex lr)) s (fun r s' => r = ROk /\ s' = s).

Lemma conn_step f p lr c l2 a s (Q : pres -> pstate -> Prop) :
  CWs f -> Rep (p_tree s) g pl -> p_handle s = h -> kids g p = rev lr ++ c :: l2 -> S c -> pget pl c = Some a -> y_op a <> opFreed ->
  fwalkb g f c ->
  wp False (connectNamed_loop f p (hd InvalidIndex lr)) s Q ->
  wp False (connectNamed_loop (Datatypes.S f) p c) s Q.
Proof.
  intros IHw H Hh Hk HS Hac Hlc Hfc K. rewrite connectNamed_loop_S. rewrite (rep_not_Inv _ _ _ _ _ H Hac).
  apply wp_bind. eapply wp_objectAt_rep; [exact H|exact Hac|exact Hlc|].
  apply wp_bind. eapply (wp_rdf_sib False p (rev lr) c l2); [exact H|exact Hk|]. intros o' Hidx _ _ _ _. rewrite Hidx.
  apply wp_bind. eapply wp_conseq; [apply (IHw c a s H Hh HS Hac Hlc Hfc)|]. intros r0 s' (-> & ->).
  change (negb (pres_eqb ROk ROk)) with false. cbv iota zeta.
  destruct (Hall c a HS Hac Hlc) as (op & flags & af & Hrow & Hcond).
  apply wp_bind. eapply wp_rdo_rep; [exact H|exact Hac|exact Hlc|]. intros ao Hpay _ Hfirst _.
  rewrite (pay_info _ _ Hpay). apply wp_bind. eapply wp_info; [exact Hrow|]. cbv beta iota.
  apply wp_bind, wp_get. rewrite (pay_th _ _ Hpay), (pay_op _ _ Hpay), Hfirst, Hh, Hcond.
  apply wp_bind. eapply (wp_rdf_sib False p (rev lr) c l2); [exact H|exact Hk|]. intros o _ _ Hprev _ _. rewrite Hprev, last_rev_hd. exact K.
Qed.

Lemma connS_walk f : CLs f -> CWs (Datatypes.S f).
Proof.
  intros IHl x a s H Hh HSx Ha Hl Hf. rewrite connectNamedObjArgs_S.
  apply wp_bind. eapply wp_objectAt_rep; [exact H|exact Ha|exact Hl|].
  apply wp_bind. eapply wp_rdf_rep; [exact H|exact Ha|exact Hl|]. intros o _ _ _ Hlast. rewrite Hlast.
  cbn [fwalkb] in Hf. rewrite <- (rev_involutive (kids g x)) at 1. rewrite last_rev_hd.
  apply (IHl x (rev (kids g x)) [] s H Hh); [rewrite rev_involutive, app_nil_r; reflexivity| |exact Hf].
  intros c Hc. apply in_rev in Hc. eapply Sclosed; eauto.
Qed.

Lemma connS_loop f : CWs f -> CLs f -> CLs (Datatypes.S f).
Proof.
  intros IHw IHl p lr l2 s H Hh Hk HS Hf.
  destruct lr as [|c r]; cbn [hd]; [rewrite connectNamed_loop_S, N.eqb_refl; apply wp_ret; auto|].
  cbn [rev] in Hk. rewrite <- app_assoc in Hk. cbn [app] in Hk.
  assert (Hin : In c (kids g p)) by (rewrite Hk; apply in_or_app; right; left; reflexivity).
  destruct (rep_kid_pay _ _ _ _ _ H Hin) as (ac & Hac & Hlc).
  cbn [floopb] in Hf. destruct Hf as [Hfc Hfr].
  eapply (conn_step f p r c l2 ac s); [exact IHw|exact H|exact Hh|exact Hk|apply HS; left; reflexivity|exact Hac|exact Hlc|exact Hfc|].
  apply (IHl p r (c :: l2) s H Hh); [exact Hk| |exact Hfr]. intros c' Hc'. apply HS. right. exact Hc'.
Qed.

Lemma connS_all : forall f, CWs f /\ CLs f.
Proof.
  induction f as [|f (IHw & IHl)].
  - split; intro; intros; cbn in *; contradiction.
  - split; [apply connS_walk; exact IHl|apply connS_loop; assumption].
Qed.
End ConnS.

Lemma Desc_kids_in g pl : forall r, Desc g pl r -> forall y c, In y (rnodes r) -> In c (kids g y) -> In c (rnodes r).
Proof.
  induction r as [i a ks IH] using rose_ind2. intros Hd y c Hy Hc. destruct (Desc_inv _ _ _ _ _ Hd) as (Hp & Hk & Hks).
  rewrite rnodes_eq in Hy |- *. destruct Hy as [<-|Hy].
  - rewrite Hk in Hc. apply in_map_iff in Hc. destruct Hc as (r & <- & Hr). right. unfold rnodesl. apply in_flat_map.
    exists r. split; [exact Hr|]. destruct r. rewrite rnodes_eq. left. reflexivity.
  - right. unfold rnodesl in *. apply in_flat_map in Hy. destruct Hy as (r & Hr & Hyr). apply in_flat_map. exists r. split; [exact Hr|].
    rewrite Forall_forall in IH, Hks. apply (IH r Hr (Hks r Hr) y c Hyr Hc).
Qed.

Lemma desc_in_tree g pl r : Desc g pl r -> forall y, desc g (ridx r) y -> In y (rnodes r).
Proof.
  intros Hd y Hy. induction Hy as [|p c Hy IH Hin].
  - destruct r. rewrite rnodes_eq. left. reflexivity.
  - eapply Desc_kids_in; eauto.
Qed.

Section ConnSpec.
Variable h tbl : N.
Variable tbls : list (list N).
Variable data : list N.
Hypothesis Hnth : nth_error tbls (N.to_nat tbl) = Some data.

(** What the loop of connectNamedObjArgs does on a run of children of [x] that the first pass built from the stretch
    [bs] of the table ([n] objects, trees [T1], [cl] of them children of [x]): it leaves the trees [T2].
    [cf] is the fuel of the run, [R] what remains for the continuation (its lower bound is not tight). *)
Definition CSp (bs : list N) (n cf cl : nat) (ok : bool) (T1 T2 : N -> N -> list rose) : Prop :=
  forall x pre post b off s g pl f ax R dpre dpost (Q : pres -> pstate -> Prop),
  Rep (p_tree s) g pl ->
  kids g x = pre ++ map ridx (T1 b off) ++ post ->
  Forall (Desc g pl) (T1 b off) ->
  pget pl x = Some ax -> y_op ax <> opFreed -> (x < b \/ b + N.of_nat n <= x) ->
  p_handle s = h -> p_tables s = tbls -> data = dpre ++ bs ++ dpost -> off = lenN dpre ->
  ok = true ->
  (8 <= R)%nat -> (cf + R <= f)%nat ->
  (forall t' g' pl', Rep t' g' pl' -> Post2 g pl g' pl' x b n pre post (T2 b off) ->
     wp False (connectNamed_loop (f - cl) x (last pre InvalidIndex)) (with_tree s t') Q) ->
  wp False (connectNamed_loop f x (last (pre ++ map ridx (T1 b off)) InvalidIndex)) s Q.

Lemma csp_app bs1 n1 cf1 cl1 ok1 A1 A2 bs2 n2 cf2 cl2 ok2 B1 B2 :
  (forall b off y, In y (rnodesl (A1 b off)) -> b <= y < b + N.of_nat n1) ->
  (forall b off y, In y (rnodesl (B2 b off)) -> b <= y < b + N.of_nat n2) ->
  (cl2 <= cf2)%nat ->
  CSp bs1 n1 cf1 cl1 ok1 A1 A2 -> CSp bs2 n2 cf2 cl2 ok2 B1 B2 ->
  CSp (bs1 ++ bs2) (n1 + n2) (cf1 + cf2) (cl1 + cl2) (ok1 && ok2)
      (fun b off => A1 b off ++ B1 (b + N.of_nat n1) (off + lenN bs1)) (fun b off => A2 b off ++ B2 (b + N.of_nat n1) (off + lenN bs1)).
Proof.
  intros NA NB Hcl SA SB x pre post b off s g pl f ax R dpre dpost Q H Hk HD Hx Hlx Hrange Hh Htb Hdata Hoff Hok HR Hf K.
  apply andb_prop in Hok. destruct Hok as [Hok1 Hok2].
  rewrite map_app in Hk |- *. apply Forall_app in HD. destruct HD as [HDA HDB].
  set (B' := b + N.of_nat n1) in *. set (off' := off + lenN bs1) in *.
  rewrite app_assoc.
  eapply (SB x (pre ++ map ridx (A1 b off)) post B' off' s g pl f ax (R + cf1)%nat (dpre ++ bs1) dpost Q);
    [exact H|rewrite Hk, <- !app_assoc; reflexivity|exact HDB|exact Hx|exact Hlx|unfold B'; lia|exact Hh|exact Htb
    |rewrite Hdata, <- !app_assoc; reflexivity|unfold off'; rewrite lenN_app, Hoff; reflexivity|exact Hok2|lia|lia|].
  intros t1 g1 pl1 H1 [Q1 Q2 Q3 Q4].
  assert (HDA1 : Forall (Desc g1 pl1) (A1 b off)).
  { apply (Desc_frame_l g pl); [exact HDA|]. intros y Hy. apply NA in Hy. split; [apply Q3|apply Q4]; unfold B'; lia. }
  eapply (SA x pre (map ridx (B2 B' off') ++ post) b off (with_tree s t1) g1 pl1 (f - cl2)%nat ax R dpre (bs2 ++ dpost) Q);
    [exact H1|rewrite Q1, <- app_assoc; reflexivity|exact HDA1|rewrite Q4 by (unfold B'; lia); exact Hx|exact Hlx|lia|exact Hh|exact Htb
    |rewrite Hdata, <- app_assoc; reflexivity|exact Hoff|exact Hok1|exact HR|lia|].
  intros t2 g2 pl2 H2 [U1 U2 U3 U4].
  replace (f - cl2 - cl1)%nat with (f - (cl1 + cl2))%nat by lia.
  apply (K t2 g2 pl2 H2). constructor.
  - rewrite U1, map_app, <- !app_assoc. reflexivity.
  - apply Forall_app. split; [exact U2|]. apply (Desc_frame_l g1 pl1); [exact Q2|].
    intros y Hy. apply NB in Hy. unfold B' in Hy. split; [apply U3|apply U4]; lia.
  - intros y Hy Hyx. rewrite U3 by lia. apply Q3; [unfold B'; lia|exact Hyx].
  - intros y Hy. rewrite U4 by lia. apply Q4. unfold B'. lia.
Qed.

Definition CSpec (its : list item) : Prop :=
  CSp (enc_items its) (iszs its) (cfuel its) (clen its) (forallb item_okb its)
      (fun b off => lay1 h tbl b off its) (fun b off => lay2 h tbl b off its).
Definition CSpec1 (x : item) : Prop :=
  CSp (enc_item x) (isz x) (cfuel_item x) (clen [x]) (item_okb x)
      (fun b off => lay1_item h tbl b off x) (fun b off => lay2_item h tbl b off x).

Lemma cspec_cons x rest : CSpec1 x -> CSpec rest -> CSpec (x :: rest).
Proof.
  intros A B. unfold CSpec. replace (clen (x :: rest)) with (clen [x] + clen rest)%nat by (destruct x; cbn [clen]; lia).
  refine (csp_app _ _ _ _ _ _ _ _ _ _ _ _ _ _ _ _ (clen_le_cfuel rest) A B).
  - intros b off y Hy. pose proof (lay1_nodes h tbl [x] b off y) as E. cbn [lay1 iszs fold_right] in E. rewrite app_nil_r in E. specialize (E Hy). lia.
  - intros b off y. apply lay2_nodes.
Qed.

Lemma cspec_nil : CSpec [].
Proof.
  intros x pre post b off s g pl f ax R dpre dpost Q H Hk HD Hx Hlx Hrange Hh Htb Hdata Hoff Hok HR Hf K.
  cbn [lay1 map clen] in *. rewrite app_nil_r. rewrite Nat.sub_0_r in K.
  specialize (K (p_tree s) g pl H). assert (E : with_tree s (p_tree s) = s) by (destruct s; reflexivity). rewrite E in K.
  apply K. constructor; auto.
Qed.

Lemma cspec_name d : CSpec1 (IName d).
Proof.
  intros x pre post b off s g pl f ax R dpre dpost Q H Hk HD Hx Hlx Hrange Hh Htb Hdata Hoff Hok HR Hf K.
  cbv beta in Hk, HD |- *. cbn [item_okb] in Hok. apply andb_prop in Hok. destruct Hok as [Hdok _]. unfold decl_okb in Hdok.
  apply andb_prop in Hdok. destruct Hdok as [Hx' _]. apply andb_prop in Hx'. destruct Hx' as [_ Hc].
  destruct (const_row' _ Hc) as (rowc & Hrowc & Hlc).
  cbn [isz cfuel_item] in *. cbn [lay1_item] in Hk, HD |- *. cbn [map ridx] in Hk |- *.
  change (enc_item (IName d)) with (enc_decl d) in *.
  pose proof (Forall_inv HD) as DN. pose proof (Forall_inv (Forall_inv_tail HD)) as DC.
  destruct (Desc_inv _ _ _ _ _ DN) as (PN & KN & HDp). pose proof (Forall_inv HDp) as DP. clear HDp.
  destruct (Desc_inv _ _ _ _ _ DP) as (PP & KP & _). destruct (Desc_inv _ _ _ _ _ DC) as (PC & KC & _).
  cbn [map ridx] in KN, KP, KC.
  assert (Hxne : x <> b /\ x <> b + 1 /\ x <> b + 2) by lia. destruct Hxne as (Hxb & Hxb1 & Hxb2).
  assert (Hk1 : kids g x = pre ++ b :: (b + 2) :: post) by exact Hk.
  rewrite last_app_two'.
  assert (EF : exists f1, (f = S (S (S (S (S (S f1))))))%nat) by (exists (f - 6)%nat; lia). destruct EF as (f1 & ->).
  (* the constant *)
  eapply (CNloop_leaf _ x (b + 2) (pre ++ [b]) post (cst_pay h (off + 5) d) rowc);
    [exact H|rewrite Hk1, <- app_assoc; reflexivity|exact PC|exact Hlc|exact KC|exact Hrowc|].
  rewrite last_last.
  (* the Name object *)
  assert (Hsl : slice_bytes s tbl (mkSlice (Some (off + 1)) 4) = Ok (seg_bytes (d_seg d))).
  { replace (off + 1) with (lenN (dpre ++ [OP_NAME])) by (rewrite lenN_app, Hoff; reflexivity).
    eapply (slice_at _ tbls tbl data (dpre ++ [OP_NAME]) (seg_bytes (d_seg d)) (enc_const d ++ dpost)); [exact Htb|exact Hnth| |reflexivity].
    rewrite Hdata. unfold enc_decl. rewrite <- !app_assoc. reflexivity. }
  rewrite seg_bytes_nm in Hsl.
  eapply (CNloop_name _ x b (b + 1) (b + 2) pre post ax (nam_pay h off name_zero) (pth_pay h tbl (off + 1)) (cst_pay h (off + 5) d)
            (aml_pOpIntNamePath, 8, 0) tbl (mkSlice (Some (off + 1)) 4));
    [exact H|exact Hk1|exact KN|exact KP|exact KC|exact Hx|exact Hlx|exact PN|reflexivity|reflexivity|symmetry; exact Hh
    |exact PP|discriminate|reflexivity|reflexivity|reflexivity|exact Hsl|exact PC|exact Hlc|].
  intros t2 H2.
  replace (S (S (S (S f1)))) with (S (S (S (S (S (S f1))))) - clen [IName d])%nat by (cbn [clen]; lia).
  apply (K t2 _ _ H2).
  (* the description of the result *)
  pose proof (rep_len_g _ _ _ H) as Hlg1.
  assert (Hxlt : x < N.of_nat (length (g_kids g))) by (rewrite Hlg1; eapply pget_lt; eauto).
  assert (Hblt : b < N.of_nat (length (g_kids g))) by (rewrite Hlg1; eapply pget_lt; eauto).
  assert (HK2 : forall y, kids (set_kids (set_kids g x (pre ++ b :: post)) b [b + 1; b + 2]) y =
                          if y =? b then [b + 1; b + 2] else if y =? x then pre ++ b :: post else kids g y).
  { intros y. apply kids2; assumption. }
  cbn [lay2_item]. constructor.
  - rewrite HK2. destruct (N.eqb_spec x b); [lia|]. rewrite N.eqb_refl. reflexivity.
  - constructor; [|constructor]. constructor.
    + rewrite pget_pupd, N.eqb_refl, PN. reflexivity.
    + rewrite HK2, N.eqb_refl. reflexivity.
    + constructor; [|constructor; [|constructor]].
      * constructor; [rewrite pget_pupd; destruct (N.eqb_spec (b + 1) b); [lia|exact PP]| |constructor].
        rewrite HK2. destruct (N.eqb_spec (b + 1) b); [lia|]. destruct (N.eqb_spec (b + 1) x); [lia|exact KP].
      * constructor; [rewrite pget_pupd; destruct (N.eqb_spec (b + 2) b); [lia|exact PC]| |constructor].
        rewrite HK2. destruct (N.eqb_spec (b + 2) b); [lia|]. destruct (N.eqb_spec (b + 2) x); [lia|exact KC].
  - intros y Hy Hyx. rewrite HK2. destruct (N.eqb_spec y b); [lia|]. apply N.eqb_neq in Hyx. rewrite Hyx. reflexivity.
  - intros y Hy. rewrite pget_pupd. destruct (N.eqb_spec y b); [lia|reflexivity].
Qed.

Lemma bk_tai bk : (argCount (bk_af bk) <=? termArgIndex (bk_af bk)) = true /\ hasFlag 33 aml_pOpFlagNamed = true /\
  (bk_op bk =? aml_pOpIntScopeBlock) = false.
Proof. destruct bk; repeat split. Qed.

Lemma hd_rows (bk : bkind) off k fa : forall p, In p (hd_pays h tbl bk off k fa) -> exists row, opInfo (y_info p) = Some row /\ y_op p <> opFreed.
Proof.
  unfold hd_pays. intros p [<-|Hp]; [eexists; split; [reflexivity|discriminate]|].
  generalize dependent (off + blo bk + k + 4). generalize (bfx bk fa). induction f as [|[w v] r IH]; intros o Hp; [contradiction|].
  cbn [fx_pays In] in Hp. destruct Hp as [<-|Hp]; [destruct w; (eexists; split; [reflexivity|discriminate])|]. apply (IH _ Hp).
Qed.

Lemma last_seqN b n : last (seqN b (S n)) InvalidIndex = b + N.of_nat n.
Proof. rewrite seqN_snoc. apply last_last. Qed.

Lemma post2_blk g pl g2 pl2 x b off bk k seg fa body pre post :
  let nf := length (bfx bk fa) in let sbi := b + 2 + N.of_nat nf in let off1 := sb_off bk off k fa in
  (x < b \/ b + N.of_nat (3 + nf + iszs body) <= x) ->
  Post2 g pl g2 pl2 sbi (b + 3 + N.of_nat nf) (iszs body) [] [] (lay2 h tbl (b + 3 + N.of_nat nf) off1 body) ->
  pget pl2 b = Some (blk_pay h bk off name_zero) -> kids g2 b = seqN (b + 1) (S nf) ++ [sbi] ->
  pget pl2 sbi = Some (sb_pay h off1) ->
  (forall i p, nth_error (hd_pays h tbl bk off k fa) i = Some p -> pget pl2 (b + 1 + N.of_nat i) = Some p /\ kids g2 (b + 1 + N.of_nat i) = []) ->
  kids g2 x = pre ++ b :: post ->
  Post2 g pl g2 (pupd pl2 b (ys_name (seg_nm seg))) x b (3 + nf + iszs body) pre post (lay2_item h tbl b off (IBlk bk k seg fa body)).
Proof.
  intros nf sbi off1 Hrange [U1 U2 U3 U4] PD2 KD2 PS2 Hrow2 Kx2. cbn [app] in U1. rewrite app_nil_r in U1.
  set (hdp := hd_pays h tbl bk off k fa) in *. assert (Hlh : length hdp = S nf) by apply len_hd_pays.
  set (pl3 := pupd pl2 b (ys_name (seg_nm seg))).
  rewrite lay2_blk. change (nfx bk fa) with (N.of_nat nf). fold hdp off1 sbi. constructor.
  - rewrite Kx2. reflexivity.
  - constructor; [|constructor]. constructor.
    + unfold pl3. rewrite pget_pupd, N.eqb_refl, PD2. reflexivity.
    + rewrite KD2, map_app, leaf_row_idx, Hlh. reflexivity.
    + apply Forall_app. split.
      * apply leaf_row_desc. intros i p Hi. assert (Hilt : (i < S nf)%nat) by (rewrite <- Hlh; apply nth_error_Some; congruence).
        destruct (Hrow2 i p Hi) as (A & B0). split; [|exact B0]. unfold pl3. rewrite pget_pupd. destruct (N.eqb_spec (b + 1 + N.of_nat i) b); [lia|exact A].
      * constructor; [|constructor]. constructor; [unfold pl3; rewrite pget_pupd; destruct (N.eqb_spec sbi b); [unfold sbi in *; lia|exact PS2]|exact U1|].
        apply (Desc_frame_l g2 pl2); [exact U2|]. intros y Hy. apply lay2_nodes in Hy. split; [reflexivity|].
        unfold pl3. rewrite pget_pupd. destruct (N.eqb_spec y b); [lia|reflexivity].
  - intros y Hy Hyx. apply U3; unfold sbi; lia.
  - intros y Hy. unfold pl3. rewrite pget_pupd. destruct (N.eqb_spec y b); [lia|]. apply U4. lia.
Qed.

Lemma cspec_blk bk k seg fa body : CSpec body -> CSpec1 (IBlk bk k seg fa body).
Proof.
  intros IHb x pre post b off s g pl f ax R dpre dpost Q H Hk HD Hx Hlx Hrange Hh Htb Hdata Hoff Hok HR Hf K.
  cbv beta in Hk, HD |- *. cbn [item_okb] in Hok. apply andb_prop in Hok. destruct Hok as [Hx' Hbody_ok]. apply andb_prop in Hx'. destruct Hx' as [_ Hpk]. apply pkglen_okb_adm in Hpk.
  destruct (bk_tai bk) as (Htai & Hnamed & Hnsb).
  rewrite isz_blk in Hrange. rewrite cfuel_blk in Hf. rewrite lay1_blk in Hk, HD |- *. cbn [map ridx] in Hk |- *.
  set (l := bfx bk fa) in *. set (nf := length l) in *. set (lo := blo bk) in *.
  assert (Hm : nfx bk fa = N.of_nat nf) by reflexivity. rewrite Hm in *.
  set (hdp := hd_pays h tbl bk off k fa) in *.
  assert (Hlh : length hdp = S nf) by apply len_hd_pays.
  set (v := k + lenN (seg_bytes seg ++ enc_fx l ++ enc_items body)) in *.
  pose proof (lenN_enc_pkglen k v Hpk) as Hlk.
  set (off1 := sb_off bk off k fa) in *.
  assert (Hoff1 : off1 = off + lo + k + 4 + lenN (enc_fx l)) by reflexivity.
  set (sbi := b + 2 + N.of_nat nf) in *.
  pose proof (Forall_inv HD) as DD.
  destruct (Desc_inv _ _ _ _ _ DD) as (PD & KD & HD2). rewrite map_app, leaf_row_idx, Hlh in KD. cbn [map ridx] in KD.
  apply Forall_app in HD2. destruct HD2 as [HDrow HDsb]. pose proof (Forall_inv HDsb) as DS. clear HDsb.
  destruct (Desc_inv _ _ _ _ _ DS) as (PS & KS & HDbody).
  pose proof (leaf_row_desc_inv _ _ _ _ HDrow) as Hrow.
  rewrite enc_blk in Hdata. fold l v in Hdata.
  assert (Hk1 : kids g x = pre ++ b :: post) by exact Hk.
  rewrite last_last.
  assert (EF : exists f', (f = S (S (S (S (S (S (S (nf + f'))))))))%nat) by (exists (f - 7 - nf)%nat; lia).
  destruct EF as (f' & ->).
  (* the loop of the enclosing scope reaches the block object *)
  rewrite connectNamed_loop_S. rewrite (rep_not_Inv _ _ _ _ _ H PD).
  assert (Hlb : y_op (blk_pay h bk off name_zero) <> opFreed) by (destruct bk; discriminate).
  apply wp_bind. eapply wp_objectAt_rep; [exact H|exact PD|exact Hlb|].
  apply wp_bind. eapply wp_rdf_rep; [exact H|exact PD|exact Hlb|]. intros od _ Hidx _ _. rewrite Hidx.
  (* connectNamedObjArgs on the block object *)
  apply wp_bind. rewrite connectNamedObjArgs_S.
  apply wp_bind. eapply wp_objectAt_rep; [exact H|exact PD|exact Hlb|].
  apply wp_bind. eapply wp_rdf_rep; [exact H|exact PD|exact Hlb|]. intros od2 _ _ _ Hlast. rewrite Hlast, KD, last_last.
  rewrite connectNamed_loop_S. rewrite (rep_not_Inv _ _ _ _ _ H PS).
  apply wp_bind. eapply wp_objectAt_rep; [exact H|exact PS|discriminate|].
  apply wp_bind. eapply wp_rdf_rep; [exact H|exact PS|discriminate|]. intros os _ Hidxs _ _. rewrite Hidxs.
  (* connectNamedObjArgs on its ScopeBlock *)
  apply wp_bind. rewrite connectNamedObjArgs_S.
  apply wp_bind. eapply wp_objectAt_rep; [exact H|exact PS|discriminate|].
  apply wp_bind. eapply wp_rdf_rep; [exact H|exact PS|discriminate|]. intros os2 _ _ _ Hlasts. rewrite Hlasts, KS.
  change (map ridx (lay1 h tbl (b + 3 + N.of_nat nf) off1 body)) with ([] ++ map ridx (lay1 h tbl (b + 3 + N.of_nat nf) off1 body)).
  eapply (IHb sbi [] [] (b + 3 + N.of_nat nf) off1 s g pl _ (sb_pay h off1) (R + 2)%nat (dpre ++ enc_op (bk_op bk) ++ enc_pkglen k v ++ seg_bytes seg ++ enc_fx l) dpost);
    [exact H|rewrite KS, app_nil_r; reflexivity|exact HDbody|exact PS|discriminate|unfold sbi; lia|exact Hh|exact Htb| | |exact Hbody_ok|lia|lia|].
  { rewrite Hdata, <- !app_assoc. reflexivity. }
  { rewrite Hoff1. rewrite !lenN_app, Hlk, Hoff. change (lenN (enc_op (bk_op bk))) with lo. change (lenN (seg_bytes seg)) with 4. lia. }
  intros t2 g2 pl2 H2 [U1' U2 U3 U4]. cbn [last]. pose proof U1' as U1. cbn [app] in U1. rewrite app_nil_r in U1.
  assert (EF3 : exists f3, (S (S (S (nf + f'))) - clen body = S f3)%nat).
  { pose proof (clen_le_cfuel body). exists (S (S (S (nf + f'))) - clen body - 1)%nat. lia. }
  destruct EF3 as (f3 & EF3). rewrite EF3. rewrite connectNamed_loop_S, N.eqb_refl. apply wp_ret.
  (* back in the loop of the block object, at the ScopeBlock *)
  change (negb (pres_eqb ROk ROk)) with false. cbv iota zeta.
  assert (Hin2 : forall y, b <= y < b + 2 + N.of_nat nf \/ y = x -> kids g2 y = kids g y /\ pget pl2 y = pget pl y).
  { intros y Hy. split; [apply U3; unfold sbi; lia|apply U4; lia]. }
  assert (PS2 : pget pl2 sbi = Some (sb_pay h off1)) by (rewrite U4 by (unfold sbi; lia); exact PS).
  assert (PD2 : pget pl2 b = Some (blk_pay h bk off name_zero)) by (rewrite (proj2 (Hin2 b ltac:(lia))); exact PD).
  assert (Px2 : pget pl2 x = Some ax) by (rewrite (proj2 (Hin2 x ltac:(lia))); exact Hx).
  assert (KD2 : kids g2 b = seqN (b + 1) (S nf) ++ [sbi]) by (rewrite (proj1 (Hin2 b ltac:(lia))); exact KD).
  assert (Kx2 : kids g2 x = pre ++ b :: post) by (rewrite (proj1 (Hin2 x ltac:(lia))); exact Hk1).
  assert (Hrow2 : forall i p, nth_error hdp i = Some p -> pget pl2 (b + 1 + N.of_nat i) = Some p /\ kids g2 (b + 1 + N.of_nat i) = []).
  { intros i p Hi. assert (Hilt : (i < S nf)%nat) by (rewrite <- Hlh; apply nth_error_Some; congruence).
    destruct (Hrow i p Hi) as (A & B0). destruct (Hin2 (b + 1 + N.of_nat i) ltac:(lia)) as (E1 & E2). rewrite E1, E2. auto. }
  assert (PP2 : pget pl2 (b + 1) = Some (pth_pay h tbl (off + lo + k)) /\ kids g2 (b + 1) = []).
  { rewrite <- (N.add_0_r (b + 1)). apply (Hrow2 0%nat). reflexivity. }
  destruct PP2 as (PP2 & KP2).
  apply wp_bind. eapply wp_rdo_rep; [exact H2|exact PS2|discriminate|]. intros aos Hpays _ _ _.
  rewrite (pay_info _ _ Hpays). apply wp_bind. eapply wp_info; [reflexivity|]. cbv beta iota.
  apply wp_bind, wp_get. rewrite (pay_op _ _ Hpays). cbn [sb_pay y_op].
  change (aml_pOpIntScopeBlock =? aml_pOpIntScopeBlock) with true. rewrite orb_true_r.
  apply wp_bind. eapply (wp_rdf_sib False b (seqN (b + 1) (S nf)) sbi []); [exact H2|exact KD2|]. intros o' _ _ Hprev _ _. rewrite Hprev.
  (* the name path and the fixed arguments are stepped over *)
  replace (S (S (S (S (nf + f'))))) with (length (seqN (b + 1) (S nf)) + S (S (S f')))%nat by (rewrite seqN_len; lia).
  eapply (conn_leaves (seqN (b + 1) (S nf)) _ b [sbi] _ g2 pl2); [exact H2|exact KD2| |].
  { intros d Hd. apply seqN_in in Hd.
    assert (Ei : exists i, d = b + 1 + N.of_nat i /\ (i < S nf)%nat) by (exists (N.to_nat (d - (b + 1))); lia).
    destruct Ei as (i & -> & Hi). destruct (nth_error hdp i) as [p|] eqn:Ep; [|apply nth_error_None in Ep; lia].
    destruct (Hrow2 i p Ep) as (A & B0). destruct (hd_rows bk off k fa p (nth_error_In _ _ Ep)) as (row & Hr & Hlp).
    split; [exact B0|]. exists p, row. auto. }
  (* back in the loop of the enclosing scope: the object gets its name *)
  change (negb (pres_eqb ROk ROk)) with false. cbv iota zeta.
  apply wp_bind. eapply wp_rdo_rep; [exact H2|exact PD2|exact Hlb|]. intros aod Hpayd _ Hfirst _.
  rewrite (pay_info _ _ Hpayd). cbn [blk_pay y_info]. apply wp_bind. eapply wp_info; [apply (bk_facts bk)|]. cbv beta iota.
  apply wp_bind, wp_get. rewrite (pay_th _ _ Hpayd), (pay_op _ _ Hpayd), Hfirst, KD2. cbn [seqN app List.hd blk_pay y_th y_op]. scbn. rewrite Hh, N.eqb_refl.
  rewrite (rep_not_Inv _ _ _ _ _ H2 PP2). rewrite Hnamed, Hnsb. cbn [negb orb].
  apply wp_bind. eapply wp_objectAt_rep; [exact H2|exact PP2|discriminate|].
  apply wp_bind. eapply wp_rdo_rep; [exact H2|exact PP2|discriminate|]. intros nop Hpayp _ _ _.
  unfold valueBytes. rewrite (pay_val _ _ Hpayp). cbn [pth_pay y_val s_len]. change (4 <? aml_amlNameLen) with false. cbv iota.
  assert (Hsl : slice_bytes (with_tree s t2) tbl (mkSlice (Some (off + lo + k)) 4) = Ok (seg_bytes seg)).
  { replace (off + lo + k) with (lenN (dpre ++ enc_op (bk_op bk) ++ enc_pkglen k v)).
    2:{ rewrite !lenN_app, Hlk, Hoff. change (lenN (enc_op (bk_op bk))) with lo. lia. }
    eapply (slice_at _ tbls tbl data _ (seg_bytes seg) (enc_fx l ++ enc_items body ++ dpost)); [exact Htb|exact Hnth| |reflexivity].
    rewrite Hdata, <- !app_assoc. reflexivity. }
  apply wp_bind. eapply wp_bytesOf; [exact Hsl|].
  apply wp_bind. unfold setNameFrom. rewrite seg_bytes_nm. cbn [rev app].
  eapply (wp_wrf_rep False _ _ (ys_name (seg_nm seg))); [exact H2|exact PD2|exact Hlb|apply st_name|].
  intros t3 H3. set (pl3 := pupd pl2 b (ys_name (seg_nm seg))) in *.
  assert (Hlive_b : live t3 b).
  { apply (R_live_glive _ _ (rep_R _ _ _ H3)). eapply rep_live; [exact H2|exact PD2|exact Hlb]. }
  apply wp_bind. eapply wp_tq; [apply (NumArgs_spec _ _ (rep_R _ _ _ H3) b Hlive_b)|].
  rewrite Htai, orb_true_r. cbv iota.
  apply wp_bind. eapply (wp_rdf_sib False x pre b post); [exact H3|exact Kx2|]. intros o3 _ _ Hprev3 _ _. rewrite Hprev3.
  match goal with |- wp _ (connectNamed_loop ?F _ _) _ _ => replace F with (S (S (S (S (S (S (S (nf + f'))))))) - clen [IBlk bk k seg fa body])%nat by (cbn [length clen]; rewrite ?seqN_len; lia) end.
  apply (K t3 _ _ H3).
  rewrite isz_blk. fold l nf.
  exact (post2_blk g pl g2 pl2 x b off bk k seg fa body pre post Hrange (mkPost2 _ _ _ _ _ _ _ _ _ _ U1' U2 U3 U4) PD2 KD2 PS2 Hrow2 Kx2).
Qed.

Lemma lk_conn lk : hasFlag 1 aml_pOpFlagNamed = true /\ (lk_op lk =? aml_pOpIntScopeBlock) = false /\
  ((1 + N.of_nat (length (lk_ws lk)) =? argCount (lk_af lk)) || (argCount (lk_af lk) <=? termArgIndex (lk_af lk))) = Nat.eqb (lk_nt lk) 0 /\
  (lk_nt lk <> O -> w8 (argCount (lk_af lk) + 0x100 - termArgIndex (lk_af lk)) = N.of_nat (lk_nt lk)).
Proof. destruct lk; repeat split; intros Hn; try reflexivity; exfalso; apply Hn; reflexivity. Qed.

Lemma lhd_rows (lk : lkind) off fa : forall p, In p (lhd_pays h tbl lk off fa) -> exists row, opInfo (y_info p) = Some row /\ y_op p <> opFreed.
Proof.
  unfold lhd_pays. intros p [<-|Hp]; [eexists; split; [reflexivity|discriminate]|].
  generalize dependent (off + llo lk + 4). generalize (lfx lk fa). induction f as [|[w v] r IH]; intros o Hp; [contradiction|].
  cbn [fx_pays In] in Hp. destruct Hp as [<-|Hp]; [destruct w; (eexists; split; [reflexivity|discriminate])|]. apply (IH _ Hp).
Qed.

Lemma cst_rows : forall ta off, forallb targ_okb ta = true -> forall p, In p (cst_pays h tbl off ta) -> exists row, opInfo (y_info p) = Some row /\ y_op p <> opFreed.
Proof.
  induction ta as [|d r IH]; intros off Hok p Hp; [contradiction|]. cbn [forallb] in Hok. apply andb_prop in Hok. destruct Hok as [Hd Hok].
  cbn [cst_pays In] in Hp. destruct Hp as [<-|Hp]; [|apply (IH _ Hok _ Hp)].
  destruct d as [d|b]; cbn [targ_okb targ_pay] in *.
  - unfold cst_okb in Hd. apply andb_prop in Hd. destruct Hd as [Hc _]. apply const_row'; exact Hc.
  - eexists. split; [reflexivity|discriminate].
Qed.

Lemma seqN_app b m n : seqN b (m + n) = seqN b m ++ seqN (b + N.of_nat m) n.
Proof.
  revert b. induction m as [|m IH]; intros b; [cbn [Nat.add seqN app]; rewrite N.add_0_r; reflexivity|].
  cbn [Nat.add seqN app]. rewrite IH. f_equal. f_equal. f_equal. lia.
Qed.

(** a leaf named object: its children are stepped over, it gets its name, and the constants that follow it become
    its arguments *)
Lemma CNloop_lobj lk F x b pre cs l2 ps p off seg ax s g pl (Q : pres -> pstate -> Prop) :
  Rep (p_tree s) g pl -> kids g x = pre ++ b :: cs ++ l2 -> kids g b = p :: ps ->
  (forall d, In d (p :: ps) -> kids g d = [] /\ exists a row, pget pl d = Some a /\ y_op a <> opFreed /\ opInfo (y_info a) = Some row) ->
  (forall c, In c cs -> ~ desc g c b /\ exists ac, pget pl c = Some ac /\ y_op ac <> opFreed) ->
  pget pl x = Some ax -> y_op ax <> opFreed -> x <> b -> ~ In b cs ->
  pget pl b = Some (lf_pay h lk off name_zero) -> pget pl p = Some (pth_pay h tbl (off + llo lk)) ->
  p_handle s = h -> slice_bytes s tbl (mkSlice (Some (off + llo lk)) 4) = Ok (seg_bytes seg) ->
  length ps = length (lk_ws lk) -> length cs = lk_nt lk ->
  (forall t' g', Rep t' g' (pupd pl b (ys_name (seg_nm seg))) ->
     (forall y, kids g' y = if y =? b then (p :: ps) ++ cs else if y =? x then pre ++ b :: l2 else kids g y) ->
     wp False (connectNamed_loop (S (S (S (S (S (S (length ps + (length cs + F)))))))) x (last pre InvalidIndex)) (with_tree s t') Q) ->
  wp False (connectNamed_loop (S (S (S (S (S (S (S (length ps + (length cs + F))))))))) x b) s Q.
Proof.
  intros H Hkx Hkb Hps Hcs Hx Hlx Hxb Hbcs Hb Hp Hh Hsl Hlps Hlcs K.
  destruct (lk_conn lk) as (Hnamed & Hnsb & Hbr & Hw8). destruct (lk_facts lk) as (_ & _ & Hnf & _ & _ & Hinfo).
  assert (Hlb : y_op (lf_pay h lk off name_zero) <> opFreed) by exact Hnf.
  remember (length ps + (length cs + F))%nat as X eqn:EX.
  rewrite connectNamed_loop_S. set (FC := S (S (S (S (S (S X)))))). rewrite (rep_not_Inv _ _ _ _ _ H Hb).
  apply wp_bind. eapply wp_objectAt_rep; [exact H|exact Hb|exact Hlb|].
  apply wp_bind. eapply wp_rdf_rep; [exact H|exact Hb|exact Hlb|]. intros od _ Hidx _ _. rewrite Hidx.
  apply wp_bind. change (connectNamedObjArgs FC b) with (connectNamedObjArgs (S (S (S (S (S (S X)))))) b). rewrite connectNamedObjArgs_S.
  apply wp_bind. eapply wp_objectAt_rep; [exact H|exact Hb|exact Hlb|].
  apply wp_bind. eapply wp_rdf_rep; [exact H|exact Hb|exact Hlb|]. intros od2 _ _ _ Hlast. rewrite Hlast, Hkb.
  replace (S (S (S (S (S X))))) with (length (p :: ps) + S (S (S (S (length cs + F)))))%nat by (cbn [length]; lia).
  eapply (conn_leaves (p :: ps) _ b [] _ g pl); [exact H|rewrite Hkb, app_nil_r; reflexivity|exact Hps|].
  change (negb (pres_eqb ROk ROk)) with false. cbv iota zeta.
  apply wp_bind. eapply wp_rdo_rep; [exact H|exact Hb|exact Hlb|]. intros aod Hpayd _ Hfirst _.
  rewrite (pay_info _ _ Hpayd). cbn [lf_pay y_info]. apply wp_bind. eapply wp_info; [exact Hinfo|]. cbv beta iota.
  apply wp_bind, wp_get. rewrite (pay_th _ _ Hpayd), (pay_op _ _ Hpayd), Hfirst, Hkb. cbn [List.hd lf_pay y_th y_op]. rewrite Hh, N.eqb_refl.
  rewrite (rep_not_Inv _ _ _ _ _ H Hp). rewrite Hnamed, Hnsb. cbn [negb orb].
  apply wp_bind. eapply wp_objectAt_rep; [exact H|exact Hp|discriminate|].
  apply wp_bind. eapply wp_rdo_rep; [exact H|exact Hp|discriminate|]. intros nop Hpayp _ _ _.
  unfold valueBytes. rewrite (pay_val _ _ Hpayp). cbn [pth_pay y_val s_len]. change (4 <? aml_amlNameLen) with false. cbv iota.
  apply wp_bind. eapply wp_bytesOf; [exact Hsl|].
  apply wp_bind. unfold setNameFrom. rewrite seg_bytes_nm. cbn [rev app].
  eapply (wp_wrf_rep False _ _ (ys_name (seg_nm seg))); [exact H|exact Hb|exact Hlb|apply st_name|].
  intros t3 H3. set (pl3 := pupd pl b (ys_name (seg_nm seg))) in *.
  assert (Hp3 : forall y, y <> b -> pget pl3 y = pget pl y) by (intros y Hy; unfold pl3; rewrite pget_pupd; destruct (N.eqb_spec y b); [contradiction|reflexivity]).
  assert (PN3 : pget pl3 b = Some (lf_pay h lk off (seg_nm seg))) by (unfold pl3; rewrite pget_pupd, N.eqb_refl, Hb; reflexivity).
  assert (Px3 : pget pl3 x = Some ax) by (rewrite Hp3 by exact Hxb; exact Hx).
  assert (Hlive_b : live t3 b).
  { apply (R_live_glive _ _ (rep_R _ _ _ H3)). eapply rep_live; [exact H|exact Hb|exact Hlb]. }
  apply wp_bind. eapply wp_tq; [apply (NumArgs_spec _ _ (rep_R _ _ _ H3) b Hlive_b)|].
  rewrite Hkb. cbn [length]. replace (N.of_nat (S (length ps))) with (1 + N.of_nat (length (lk_ws lk))) by lia. rewrite Hbr.
  destruct (lk_nt lk) as [|ntm1] eqn:Ent; cbn [Nat.eqb]; cbv iota.
  - (* no further arguments *)
    assert (Hcs0 : cs = []) by (destruct cs; [reflexivity|discriminate]). subst cs. cbn [app] in Hkx.
    apply wp_bind. eapply (wp_rdf_sib False x pre b l2); [exact H3|exact Hkx|]. intros o3 _ _ Hprev3 _ _. rewrite Hprev3.
    unfold FC. apply (K t3 g H3). intros y. rewrite app_nil_r.
    destruct (N.eqb_spec y b) as [->|_]; [exact Hkb|]. destruct (N.eqb_spec y x) as [->|_]; [exact Hkx|reflexivity].
  - (* the constants become arguments *)
    rewrite Hw8 by discriminate. rewrite <- Hlcs.
    apply wp_bind. unfold attachSiblingsAsArgs.
    apply wp_bind. eapply (wp_rdf_sib False x pre b (cs ++ l2)); [exact H3|exact Hkx|]. intros o3 _ _ _ Hnext3 _. rewrite Hnext3.
    change (attachSiblings_go FC) with (attachSiblings_go (S (S (S (S (S (S X))))))).
    replace (S (S (S (S (S (S X)))))) with (length cs + S (S (S (S (S (S (length ps + F)))))))%nat by lia.
    eapply (attach_go cs _ x b pre l2 ax _ _ g pl3); [exact H3|exact Hkx| |exact Px3|exact Hlx|exact PN3|exact Hnf|].
    { intros c Hc. destruct (Hcs c Hc) as (A & a0 & Pa & La). split; [exact A|]. exists a0. split; [|exact La].
      rewrite Hp3; [exact Pa|]. intros E. apply Hbcs. rewrite <- E. exact Hc. }
    intros t4 g4 H4 _ Hk4. change (negb (pres_eqb ROk ROk)) with false. cbv iota.
    assert (Hk4x : kids g4 x = pre ++ b :: l2).
    { rewrite Hk4. apply N.eqb_neq in Hxb. rewrite Hxb, N.eqb_refl. reflexivity. }
    apply wp_bind. eapply (wp_rdf_sib False x pre b l2); [exact H4|exact Hk4x|]. intros o4 _ _ Hprev4 _ _. rewrite Hprev4.
    unfold FC. apply (K t4 g4 H4). intros y. rewrite Hk4, Hkb. reflexivity.
Qed.

(** the tree of a leaf named object after the pass *)
Lemma post2_leaf g pl g' x b off lk seg fa ta pre post :
  let nf := length (lfx lk fa) in let nt := length ta in let ci := b + 2 + N.of_nat nf in
  (x < b \/ b + N.of_nat (2 + nf + nt) <= x) ->
  pget pl b = Some (lf_pay h lk off name_zero) ->
  (forall i p, nth_error (lhd_pays h tbl lk off fa) i = Some p -> pget pl (b + 1 + N.of_nat i) = Some p /\ kids g (b + 1 + N.of_nat i) = []) ->
  (forall i p, nth_error (cst_pays h tbl (ta_off lk off fa) ta) i = Some p -> pget pl (ci + N.of_nat i) = Some p /\ kids g (ci + N.of_nat i) = []) ->
  (forall y, kids g' y = if y =? b then seqN (b + 1) (S nf) ++ seqN ci nt else if y =? x then pre ++ b :: post else kids g y) ->
  Post2 g pl g' (pupd pl b (ys_name (seg_nm seg))) x b (2 + nf + nt) pre post (lay2_item h tbl b off (ILeaf lk seg fa ta)).
Proof.
  intros nf nt ci Hrange PN1 Hrow1 Hcrow1 Hk'.
  set (pl3 := pupd pl b (ys_name (seg_nm seg))).
  set (hdp := lhd_pays h tbl lk off fa) in *. set (cs := cst_pays h tbl (ta_off lk off fa) ta) in *.
  assert (Hlh : length hdp = S nf) by apply len_lhd_pays.
  assert (Hlc : length cs = nt) by apply len_cst_pays.
  assert (Hxb : x <> b) by lia.
  assert (Hp3 : forall y, y <> b -> pget pl3 y = pget pl y) by (intros y Hy; unfold pl3; rewrite pget_pupd; destruct (N.eqb_spec y b); [contradiction|reflexivity]).
  assert (PN3 : pget pl3 b = Some (lf_pay h lk off (seg_nm seg))) by (unfold pl3; rewrite pget_pupd, N.eqb_refl, PN1; reflexivity).
  assert (Hko : forall y, y <> b -> y <> x -> kids g' y = kids g y).
  { intros y Hyb Hyx. rewrite Hk'. apply N.eqb_neq in Hyb. apply N.eqb_neq in Hyx. rewrite Hyb, Hyx. reflexivity. }
  cbn [lay2_item]. fold hdp cs. constructor.
  - rewrite Hk'. apply N.eqb_neq in Hxb. rewrite Hxb, N.eqb_refl. reflexivity.
  - constructor; [|constructor]. constructor.
    + exact PN3.
    + rewrite Hk', N.eqb_refl, leaf_row_idx, app_length, Hlh, Hlc, seqN_app. f_equal. f_equal. unfold ci. lia.
    + apply leaf_row_desc. intros i p Hi.
      destruct (Nat.ltb_spec i (S nf)) as [Hlt|Hge].
      * rewrite nth_error_app1 in Hi by (rewrite Hlh; exact Hlt). destruct (Hrow1 i p Hi) as (A & B0).
        split; [rewrite Hp3 by lia; exact A|rewrite Hko by lia; exact B0].
      * rewrite nth_error_app2 in Hi by (rewrite Hlh; exact Hge). rewrite Hlh in Hi.
        assert (Hilt : (i - S nf < nt)%nat) by (rewrite <- Hlc; apply nth_error_Some; congruence).
        destruct (Hcrow1 _ p Hi) as (A & B0). replace (ci + N.of_nat (i - S nf)) with (b + 1 + N.of_nat i) in A, B0 by (unfold ci; lia).
        split; [rewrite Hp3 by lia; exact A|rewrite Hko by lia; exact B0].
  - intros y Hy Hyx. apply Hko; [lia|exact Hyx].
  - intros y Hy. fold pl3. apply Hp3. lia.
Qed.

Lemma cspec_leaf lk seg fa ta : CSpec1 (ILeaf lk seg fa ta).
Proof.
  intros x pre post b off s g pl f ax R dpre dpost Q H Hk HD Hx Hlx Hrange Hh Htb Hdata Hoff Hok HR Hf K.
  cbv beta in Hk, HD |- *. cbn [item_okb] in Hok. apply andb_prop in Hok. destruct Hok as [Hx' Hta]. apply andb_prop in Hx'. destruct Hx' as [Hx' Hlta]. apply Nat.eqb_eq in Hlta.
  apply andb_prop in Hx'. destruct Hx' as [Hx' _]. apply andb_prop in Hx'. destruct Hx' as [_ Hlfa]. apply Nat.eqb_eq in Hlfa.
  rewrite isz_leaf in Hrange. rewrite cfuel_leaf in Hf. cbn [lay1_item] in Hk, HD |- *.
  set (l := lfx lk fa) in *. set (nf := length l) in *. set (lo := llo lk) in *. set (nt := length ta) in *.
  assert (Hm : nlf lk fa = N.of_nat nf) by reflexivity. rewrite Hm in *.
  assert (Hnfw : nf = length (lk_ws lk)) by (unfold nf, l, lfx; rewrite combine_length; lia).
  set (hdp := lhd_pays h tbl lk off fa) in *. set (cs := cst_pays h tbl (ta_off lk off fa) ta) in *.
  assert (Hlh : length hdp = S nf) by apply len_lhd_pays.
  assert (Hlc : length cs = nt) by apply len_cst_pays.
  set (ci := b + 2 + N.of_nat nf) in *.
  cbn [map ridx] in Hk |- *. rewrite leaf_row_idx, Hlc in Hk |- *.
  pose proof (Forall_inv HD) as DN. pose proof (Forall_inv_tail HD) as HDcs.
  destruct (Desc_inv _ _ _ _ _ DN) as (PN & KN & HDhd). rewrite leaf_row_idx, Hlh in KN.
  pose proof (leaf_row_desc_inv _ _ _ _ HDhd) as Hrow. pose proof (leaf_row_desc_inv _ _ _ _ HDcs) as Hcrow.
  rewrite enc_leaf in Hdata. fold l in Hdata.
  assert (Hk1 : kids g x = pre ++ b :: seqN ci nt ++ post) by exact Hk.
  assert (Hcsleaf : forall d, In d (seqN ci nt) -> kids g d = [] /\ exists a row, pget pl d = Some a /\ y_op a <> opFreed /\ opInfo (y_info a) = Some row).
  { intros d Hd. apply seqN_in in Hd.
    assert (Ei : exists i, d = ci + N.of_nat i /\ (i < nt)%nat) by (exists (N.to_nat (d - ci)); lia).
    destruct Ei as (i & -> & Hi). destruct (nth_error cs i) as [p|] eqn:Ep; [|apply nth_error_None in Ep; lia].
    destruct (Hcrow i p Ep) as (A & B0). destruct (cst_rows ta _ Hta p (nth_error_In _ _ Ep)) as (row & Hr & Hlp).
    split; [exact B0|]. exists p, row. auto. }
  assert (Hhdleaf : forall d, In d (seqN (b + 1) (S nf)) -> kids g d = [] /\ exists a row, pget pl d = Some a /\ y_op a <> opFreed /\ opInfo (y_info a) = Some row).
  { intros d Hd. apply seqN_in in Hd.
    assert (Ei : exists i, d = b + 1 + N.of_nat i /\ (i < S nf)%nat) by (exists (N.to_nat (d - (b + 1))); lia).
    destruct Ei as (i & -> & Hi). destruct (nth_error hdp i) as [p|] eqn:Ep; [|apply nth_error_None in Ep; lia].
    destruct (Hrow i p Ep) as (A & B0). destruct (lhd_rows lk off fa p (nth_error_In _ _ Ep)) as (row & Hr & Hlp).
    split; [exact B0|]. exists p, row. auto. }
  assert (PP1 : pget pl (b + 1) = Some (pth_pay h tbl (off + lo))).
  { rewrite <- (N.add_0_r (b + 1)). apply (Hrow 0%nat). reflexivity. }
  assert (Hsl : slice_bytes s tbl (mkSlice (Some (off + lo)) 4) = Ok (seg_bytes seg)).
  { replace (off + lo) with (lenN (dpre ++ enc_op (lk_op lk))) by (rewrite lenN_app, Hoff; reflexivity).
    eapply (slice_at _ tbls tbl data _ (seg_bytes seg) (enc_fx l ++ enc_ta ta ++ dpost)); [exact Htb|exact Hnth| |reflexivity].
    rewrite Hdata, <- !app_assoc. reflexivity. }
  assert (EF : exists f', (f = nt + S (S (S (S (S (S (S (nf + (nt + f')))))))))%nat) by (exists (f - 7 - nf - 2 * nt)%nat; lia).
  destruct EF as (f' & ->).
  (* the constants *)
  replace (pre ++ b :: seqN ci nt) with ((pre ++ [b]) ++ seqN ci nt) by (rewrite <- app_assoc; reflexivity).
  replace nt with (length (seqN ci nt)) at 1 by apply seqN_len.
  eapply (conn_leaves_mid (seqN ci nt) _ x (pre ++ [b]) post _ g pl); [exact H|rewrite Hk1, <- !app_assoc; reflexivity|exact Hcsleaf|].
  rewrite last_last.
  (* the named object *)
  replace (S (S (S (S (S (S (S (nf + (nt + f')))))))))  with (S (S (S (S (S (S (S (length (seqN (b + 1 + 1) nf) + (length (seqN ci nt) + f'))))))))) by (rewrite !seqN_len; reflexivity).
  eapply (CNloop_lobj lk f' x b pre (seqN ci nt) post (seqN (b + 1 + 1) nf) (b + 1) off seg ax _ g pl);
    [exact H|exact Hk1|exact KN|exact Hhdleaf| |exact Hx|exact Hlx|lia| |exact PN|exact PP1|exact Hh|exact Hsl|rewrite seqN_len; exact Hnfw|rewrite seqN_len; exact Hlta|].
  { intros c Hc. destruct (Hcsleaf c Hc) as (A & a0 & row & Pa & La & _). split; [|exists a0; auto].
    intros Hd. apply desc_leaf in Hd; [|exact A]. apply seqN_in in Hc. unfold ci in Hc. lia. }
  { intros Hin. apply seqN_in in Hin. unfold ci in Hin. lia. }
  intros t3 g3 H3 Hk3. rewrite !seqN_len.
  replace (S (S (S (S (S (S (nf + (nt + f')))))))) with (nt + S (S (S (S (S (S (S (nf + (nt + f')))))))) - clen [ILeaf lk seg fa ta])%nat by (cbn [clen]; fold nt; lia).
  apply (K t3 g3 _ H3).
  rewrite isz_leaf. fold l nf nt.
  apply (post2_leaf g pl g3 x b off lk seg fa ta pre post Hrange PN Hrow Hcrow).
  intros y. rewrite Hk3. reflexivity.
Qed.

(** ---- Name(SEG, Package(..){..}) ---- *)
Definition inert (r : rose) : Prop :=
  match r with RN i a ks => exists op flags af, opInfo (y_info a) = Some (op, flags, af) /\
                               (hasFlag flags aml_pOpFlagNamed = false \/ y_op a = aml_pOpIntScopeBlock) end.

Lemma pel_trees_inert : forall elems b off, forallb pel_okb elems = true -> Forall (rallr inert) (pel_trees h tbl b off elems).
Proof.
  induction elems as [|d r IH|k n es r IHe IH] using pels_ind; intros b off Hok; [constructor| |];
    cbn [forallb] in Hok; apply andb_prop in Hok; destruct Hok as [Hd Hok]; rewrite pel_trees_cons; (constructor; [|apply IH; exact Hok]).
  - cbn [pel_tree]. constructor; [|constructor]. cbn [pel_okb] in Hd.
    destruct d as [d|bs]; cbn [targ_okb targ_pay inert] in *.
    + unfold cst_okb in Hd. apply andb_prop in Hd. destruct Hd as [Hc _]. unfold cst_pay. cbn [y_info y_op].
      destruct (is_constb_cases _ Hc) as [E|[E|[E|[E|[E|[E|E]]]]]]; rewrite E; (do 3 eexists; split; [reflexivity|left; reflexivity]).
    + do 3 eexists. split; [reflexivity|left; reflexivity].
  - rewrite pel_okb_sub in Hd. apply andb_prop in Hd. destruct Hd as [_ Hes]. rewrite pel_tree_sub.
    constructor; [cbn [inert]; do 3 eexists; split; [reflexivity|left; reflexivity]|].
    constructor; [constructor; [cbn [inert]; do 3 eexists; split; [reflexivity|left; reflexivity]|constructor]|].
    constructor; [|constructor]. constructor; [cbn [inert]; do 3 eexists; split; [reflexivity|right; reflexivity]|]. apply IHe. exact Hes.
Qed.

Lemma pkg_tree_inert b off k n elems : forallb pel_okb elems = true -> rallr inert (pkg_tree h tbl b off k n elems).
Proof.
  intros Hok. unfold pkg_tree. rewrite pel_tree_sub. constructor; [cbn [inert]; do 3 eexists; split; [reflexivity|left; reflexivity]|].
  constructor; [constructor; [cbn [inert]; do 3 eexists; split; [reflexivity|left; reflexivity]|constructor]|].
  constructor; [|constructor]. constructor; [cbn [inert]; do 3 eexists; split; [reflexivity|right; reflexivity]|]. apply pel_trees_inert. exact Hok.
Qed.

Lemma inert_conn_ok g i a ks : inert (RN i a ks) -> conn_ok g h i a.
Proof.
  intros (op & flags & af & Hrow & Hc). exists op, flags, af. split; [exact Hrow|].
  destruct Hc as [Hc|Hc]; [rewrite Hc; reflexivity|rewrite Hc, N.eqb_refl; rewrite !orb_true_r; reflexivity].
Qed.

Lemma post2_pkg g pl g' x b off seg k n elems pre post :
  let m := pels_sz elems in
  (x < b \/ b + N.of_nat (5 + m) <= x) ->
  pget pl b = Some (nam_pay h off name_zero) -> pget pl (b + 1) = Some (pth_pay h tbl (off + 1)) -> kids g (b + 1) = [] ->
  Desc g pl (pkg_tree h tbl (b + 2) (off + 5) k n elems) ->
  (forall y, kids g' y = if y =? b then [b + 1; b + 2] else if y =? x then pre ++ b :: post else kids g y) ->
  Post2 g pl g' (pupd pl b (ys_name (seg_nm seg))) x b (5 + m) pre post (lay2_item h tbl b off (IPkg seg k n elems)).
Proof.
  intros m Hrange PN1 PP1 KP1 DP Hk'.
  set (pl3 := pupd pl b (ys_name (seg_nm seg))).
  assert (Hxb : x <> b) by lia.
  assert (Hp3 : forall y, y <> b -> pget pl3 y = pget pl y) by (intros y Hy; unfold pl3; rewrite pget_pupd; destruct (N.eqb_spec y b); [contradiction|reflexivity]).
  assert (PN3 : pget pl3 b = Some (nam_pay h off (seg_nm seg))) by (unfold pl3; rewrite pget_pupd, N.eqb_refl, PN1; reflexivity).
  assert (Hko : forall y, y <> b -> y <> x -> kids g' y = kids g y).
  { intros y Hyb Hyx. rewrite Hk'. apply N.eqb_neq in Hyb. apply N.eqb_neq in Hyx. rewrite Hyb, Hyx. reflexivity. }
  cbn [lay2_item]. constructor.
  - rewrite Hk'. apply N.eqb_neq in Hxb. rewrite Hxb, N.eqb_refl. reflexivity.
  - constructor; [|constructor]. constructor.
    + exact PN3.
    + rewrite Hk', N.eqb_refl. reflexivity.
    + constructor; [|constructor; [|constructor]].
      * constructor; [rewrite Hp3 by lia; exact PP1|rewrite Hko by lia; exact KP1|constructor].
      * apply (Desc_frame g pl); [exact DP|]. intros y Hy. apply pkg_tree_nodes in Hy. split; [apply Hko; lia|apply Hp3; lia].
  - intros y Hy Hyx. apply Hko; [lia|exact Hyx].
  - intros y Hy. fold pl3. apply Hp3. lia.
Qed.

Lemma cspec_pkg seg k n elems : CSpec1 (IPkg seg k n elems).
Proof.
  intros x pre post b off s g pl f ax R dpre dpost Q H Hk HD Hx Hlx Hrange Hh Htb Hdata Hoff Hok HR Hf K.
  cbv beta in Hk, HD |- *. cbn [item_okb] in Hok. apply andb_prop in Hok. destruct Hok as [_ Hel_ok].
  rewrite isz_pkg in Hrange. rewrite cfuel_pkg in Hf. cbn [lay1_item] in Hk, HD |- *.
  set (m := pels_sz elems) in *.
  cbn [map ridx] in Hk |- *. change (ridx (pkg_tree h tbl (b + 2) (off + 5) k n elems)) with (b + 2) in Hk |- *.
  pose proof (Forall_inv HD) as DN. pose proof (Forall_inv (Forall_inv_tail HD)) as DP. clear HD.
  destruct (Desc_inv _ _ _ _ _ DN) as (PN & KN & HDp). pose proof (Forall_inv HDp) as Dpth. clear HDp.
  destruct (Desc_inv _ _ _ _ _ Dpth) as (PP & KP & _). cbn [map ridx] in KN, KP.
  rewrite enc_pkg_item in Hdata.
  set (PT := pkg_tree h tbl (b + 2) (off + 5) k n elems) in *.
  assert (Hk1 : kids g x = pre ++ b :: [b + 2] ++ post) by exact Hk.
  assert (EF : exists F, (f = S (S (S (S (S (S (S (S (S (F))))))))))%nat /\ (3 * (3 + m) <= S (S (S (S (S (S (S (1 + F))))))))%nat) by (exists (f - 9)%nat; lia).
  destruct EF as (F & -> & HF3).
  replace (pre ++ [b; b + 2]) with (pre ++ [b] ++ [b + 2]) by reflexivity. rewrite app_assoc, last_last.
  (* the Package and what is below it is left alone *)
  assert (HPall : forall y a, In y (rnodes PT) -> pget pl y = Some a -> y_op a <> opFreed -> conn_ok g h y a).
  { intros y a Hy Ha _. destruct (rallr_lookup g pl inert PT DP (pkg_tree_inert _ _ _ _ _ Hel_ok) y Hy) as (a' & ks & Dy & Oy).
    destruct (Desc_inv _ _ _ _ _ Dy) as (Py & _ & _). assert (a' = a) by congruence. subst a'. apply (inert_conn_ok g y a ks Oy). }
  assert (PPk : pget pl (b + 2) = Some (pkg_pay h (off + 5))) by (apply (Desc_inv _ _ _ _ _ DP)).
  replace (pre ++ [b]) with (rev (rev (pre ++ [b]))) by apply rev_involutive.
  eapply (conn_step g pl h (fun y => In y (rnodes PT)) (fun y a Hy Ha Hl => HPall y a Hy Ha Hl) _ x (rev (pre ++ [b])) (b + 2) post (pkg_pay h (off + 5)) s);
    [|exact H|exact Hh|rewrite rev_involutive, Hk1, <- !app_assoc; reflexivity|unfold PT, pkg_tree; rewrite pel_tree_sub, rnodes_eq; left; reflexivity|exact PPk|discriminate| |].
  { refine (proj1 (connS_all g pl h (fun y => In y (rnodes PT)) _ (fun y a Hy Ha Hl => HPall y a Hy Ha Hl) _)).
    intros y c Hy Hc. apply (Desc_kids_in g pl PT DP y c Hy Hc). }
  { change (b + 2) with (ridx PT). apply (fwalkb_size g pl PT DP). unfold PT. rewrite pkg_tree_rsize. fold m. exact HF3. }
  rewrite <- (last_rev_hd (rev (pre ++ [b])) InvalidIndex), rev_involutive, last_last.
  (* the Name object gets its name and the Package *)
  assert (Hsl : slice_bytes s tbl (mkSlice (Some (off + 1)) 4) = Ok (seg_bytes seg)).
  { replace (off + 1) with (lenN (dpre ++ [OP_NAME])) by (rewrite lenN_app, Hoff; reflexivity).
    eapply (slice_at _ tbls tbl data (dpre ++ [OP_NAME]) (seg_bytes seg) _); [exact Htb|exact Hnth| |reflexivity].
    rewrite Hdata. cbn [app]. rewrite <- !app_assoc. reflexivity. }
  change (S (S (S (S (S (S (S (1 + F)))))))) with (S (S (S (S (S (S (S (length (@nil N) + (length [b + 2] + F))))))))).
  eapply (CNloop_lobj LName F x b pre [b + 2] post [] (b + 1) off seg ax _ g pl);
    [exact H|exact Hk1|exact KN| | |exact Hx|exact Hlx|lia| |exact PN|exact PP|exact Hh|exact Hsl|reflexivity|reflexivity|].
  { intros d [<-|[]]. split; [exact KP|]. do 2 eexists. split; [exact PP|split; [discriminate|reflexivity]]. }
  { intros c [<-|[]]. split; [|exists (pkg_pay h (off + 5)); split; [exact PPk|discriminate]].
    intros Hd. apply (desc_in_tree g pl PT DP) in Hd. unfold PT in Hd. apply pkg_tree_nodes in Hd. lia. }
  { intros [E|[]]. lia. }
  intros t3 g3 H3 Hk3. cbn [length Nat.add].
  match goal with |- wp _ (connectNamed_loop ?F0 _ _) _ _ => replace F0 with (S (S (S (S (S (S (S (S (S F)))))))) - clen [IPkg seg k n elems])%nat by (cbn [clen]; lia) end.
  apply (K t3 g3 _ H3).
  rewrite isz_pkg. fold m.
  apply (post2_pkg g pl g3 x b off seg k n elems pre post Hrange PN PP KP DP).
  intros y. rewrite Hk3. reflexivity.
Qed.

(** a statement and its operands: not named objects, the pass steps over them *)
Lemma cspec_stmt sk ta : CSpec1 (IStmt sk ta).
Proof.
  intros x pre post b off s g pl f ax R dpre dpost Q H Hk HD Hx Hlx Hrange Hh Htb Hdata Hoff Hok HR Hf K.
  cbv beta in Hk, HD |- *. cbn [item_okb] in Hok. apply andb_prop in Hok. destruct Hok as [_ Hta].
  rewrite isz_stmt in Hrange. cbn [cfuel_item] in Hf.
  change (lay2_item h tbl b off (IStmt sk ta)) with (lay1_item h tbl b off (IStmt sk ta)) in K.
  set (row := lay1_item h tbl b off (IStmt sk ta)) in *. set (nt := length ta) in *.
  assert (Hrow_idx : map ridx row = seqN b (S nt)).
  { unfold row. cbn [lay1_item map ridx seqN]. rewrite leaf_row_idx, len_cst_pays. reflexivity. }
  assert (Hrow : forall d, In d (map ridx row) -> kids g d = [] /\ exists a rw, pget pl d = Some a /\ y_op a <> opFreed /\ opInfo (y_info a) = Some rw).
  { intros d Hd. rewrite Hrow_idx in Hd. apply seqN_in in Hd. unfold row in HD. cbn [lay1_item] in HD.
    destruct (N.eq_dec d b) as [->|Hne].
    - destruct (Desc_inv _ _ _ _ _ (Forall_inv HD)) as (Pb & Kb & _). split; [exact Kb|].
      destruct (sk_row sk) as (Hr & _). exists (st_pay h sk off). eexists. split; [exact Pb|]. split; [destruct sk; discriminate|exact Hr].
    - pose proof (Forall_inv_tail HD) as HDl.
      assert (Ei : exists i, d = b + 1 + N.of_nat i /\ (i < nt)%nat) by (exists (N.to_nat (d - b - 1)); lia). destruct Ei as (i & -> & Hi).
      destruct (nth_error (cst_pays h tbl (off + slo sk) ta) i) as [p|] eqn:Ep.
      2:{ apply nth_error_None in Ep. rewrite len_cst_pays in Ep. fold nt in Ep. lia. }
      destruct (leaf_row_desc_inv _ _ _ _ HDl i p Ep) as (Pp & Kp). split; [exact Kp|].
      destruct (cst_rows ta (off + slo sk) Hta p (nth_error_In _ _ Ep)) as (rw & Hrw & Hlp). exists p, rw. auto. }
  assert (Hlr : length (map ridx row) = S nt) by (rewrite Hrow_idx, seqN_len; reflexivity).
  assert (EF : exists f1, (f = length (map ridx row) + S (S f1))%nat) by (exists (f - S nt - 2)%nat; rewrite Hlr; lia).
  destruct EF as (f1 & ->).
  eapply (conn_leaves_mid (map ridx row) f1 x pre post s g pl Q); [exact H|exact Hk|exact Hrow|].
  replace (S (S f1)) with (length (map ridx row) + S (S f1) - clen [IStmt sk ta])%nat by (cbn [clen]; fold nt; rewrite Hlr; lia).
  specialize (K (p_tree s) g pl H). assert (E : with_tree s (p_tree s) = s) by (destruct s; reflexivity). rewrite E in K.
  apply K. constructor; auto.
Qed.

Theorem cspec_all : forall its, CSpec its.
Proof.
  induction its as [|d rest IH|bk k seg fa body rest IHb IH|lk seg fa ta rest IH|seg k n elems rest IH|sk ta rest IH] using items_ind.
  - apply cspec_nil.
  - apply cspec_cons; [apply cspec_name|exact IH].
  - apply cspec_cons; [apply cspec_blk; exact IHb|exact IH].
  - apply cspec_cons; [apply cspec_leaf|exact IH].
  - apply cspec_cons; [apply cspec_pkg|exact IH].
  - apply cspec_cons; [apply cspec_stmt|exact IH].
Qed.
End ConnSpec.
