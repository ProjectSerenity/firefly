(** C11: the first pass of ParseAML on the encoding of a flat list of [Name(<one name segment>, <integer constant>)]
    statements, as a function: which objects it creates, with which payload, and where it hangs them ([names_pass1]).
    (Productions: DefName with a single-segment NameString and a ComputationalData constant: ZeroOp / OneOp / OnesOp /
    ByteConst / WordConst / DWordConst / QWordConst.)
    The statement is about ANY tree related to a forest by [R] - freed slots may be reused, so the places of the new
    objects are existential ([iobj]) - whereas the fragment theorems (ParserFrag*.v) start from a pool without freed
    slots.  It stands alone: only ParserNames2.v imports this file, and nothing imports that one. *)
From Coq Require Import NArith Arith List Bool Lia.
From Coq Require Import ZifyBool ZifyN ZifyNat.
From FF Require Import Lib.Word Gen.Consts_device_acpi_aml Gen.Consts_aml_tree Aml.Stream Aml.Lex Aml.LexProofs
  Aml.Grammar Aml.View Aml.WfProgram Aml.LexRoundtrip
  Aml.Tree Aml.TreeSpec Aml.TreeProofs Aml.TreeProofsOps Aml.Parser
  Aml.ParserTotalTree Aml.ParserTotalLex Aml.ParserTotalTable Aml.ParserTotalBase Aml.ParserTotalLeaf Aml.ParserTotalFirst
  Aml.ParserFragBase Aml.ParserFragFirst.
Import ListNotations.
Local Open Scope N_scope.

(** ---- exact versions of the tree steps ---- *)
Lemma kids_new g opc th i : kids (astep g (OpNew opc th)) i = kids g i.
Proof. cbn [astep]. destruct (g_free g); [apply kids_app_nil|reflexivity]. Qed.

Lemma kids_append g o a i : o < N.of_nat (length (g_kids g)) ->
  kids (astep g (OpAppend o a)) i = if i =? o then kids g o ++ [a] else kids g i.
Proof. intros H. cbn [astep]. rewrite kids_set_kids by exact H. destruct (i =? o) eqn:E; [apply N.eqb_eq in E; subst|]; reflexivity. Qed.

Lemma pay_eq_trans {V} (a b c : Object V) : pay_eq a b -> pay_eq b c -> pay_eq a c.
Proof.
  unfold pay_eq. intros (A1 & A2 & A3 & A4 & A5 & A6 & A7 & A8) (B1 & B2 & B3 & B4 & B5 & B6 & B7 & B8).
  repeat split; etransitivity; eassumption.
Qed.

(** the payload of the objects that existed in [g] *)
Definition oldframe (g : ghost) (t t' : T) : Prop :=
  forall i o, glive g i -> tget t i = Some o -> exists o', tget t' i = Some o' /\ pay_eq o o'.

Lemma oldframe_refl g t : oldframe g t t.
Proof. intros i o _ H. exists o. split; auto. apply pay_eq_refl. Qed.

Lemma oldframe_trans g t1 t2 t3 : oldframe g t1 t2 -> oldframe g t2 t3 -> oldframe g t1 t3.
Proof.
  intros H1 H2 i o Hl Hg. destruct (H1 _ _ Hl Hg) as (o' & Hg' & E). destruct (H2 _ _ Hl Hg') as (o'' & Hg'' & E').
  exists o''. split; [exact Hg''|exact (pay_eq_trans _ _ _ E E')].
Qed.

Lemma oldframe_pframe g t t' : pframe t t' -> oldframe g t t'.
Proof. intros [_ H] i o _ Hg. apply H. exact Hg. Qed.

Lemma oldframe_tset g (t : T) p f : ~ glive g p -> oldframe g t (tset t p f).
Proof.
  intros Hp i o Hl Hg. exists o. split; [|apply pay_eq_refl]. rewrite get_tset.
  destruct (N.eqb_spec i p) as [->|Hne]; [contradiction|exact Hg].
Qed.

Lemma new_step_x P opc s g (Q : N -> pstate -> Prop) :
  FI s g -> newok opc -> lp s + 1 < InvalidIndex ->
  (forall p t' po,
     let g' := astep g (OpNew opc (p_handle s)) in
     FI (with_tree s t') g' -> ~ glive g p -> glive g' p -> groot g' p -> kids g' p = [] -> gext g g' ->
     tget t' p = Some po -> o_opcode po = opc -> o_value po = None -> o_tableHandle po = p_handle s ->
     opcodeTableIndex opc true = Some (o_infoIndex po) ->
     oldframe g (p_tree s) t' ->
     (length (t_pool t') <= S (length (t_pool (p_tree s))))%nat ->
     Q p (with_tree s t')) ->
  wp P (newObj opc) s Q.
Proof.
  intros H (Hnf & Hmaps & i0 & Hi0 & Hinfo) Hroom K.
  pose proof (fi_R _ _ H) as HR.
  destruct (newObject_R (p_tree s) g opc (p_handle s) HR) as (t' & p & E & HR' & _ & Hp).
  { split; auto. split; auto. intros _. rewrite (R_len _ _ HR). unfold lp in Hroom. lia. }
  destruct (newObject_shape _ _ _ _ _ E) as ((po & Hpo & Hop & Hidx & Hth & Hval) & Hfw & Hbw & Hl1 & Hl2).
  destruct (new_slot_fresh (p_tree s) g opc (p_handle s) HR) as (F1 & F2 & F3 & F4). fold (new_slot (p_tree s) g) in Hp.
  rewrite <- Hp in F1, F2, F3, F4.
  rewrite pOpcodeTableIndex_eq, Hi0 in Hidx. inversion Hidx as [Hii].
  unfold wp, newObj. rewrite E.
  apply (K p t' po); auto.
  - apply FI_with_tree with (g := g); auto.
    + intros i o Hg Hl. destruct (N.eqb_spec i p) as [->|Hne].
      * assert (o = po) by congruence. subst o. rewrite <- Hii. exact Hinfo.
      * apply (fi_info _ _ H i o); auto.
    + apply (ge_live _ _ (gext_new g opc (p_handle s))).
  - apply gext_new.
  - rewrite <- Hii. exact Hi0.
  - intros i o Hl Hg. exists o. split; [|apply pay_eq_refl]. apply Hfw; auto. intros ->. contradiction.
Qed.

(** ---- tokens ---- *)

Lemma at_token_rok r pre tok post : at_token r pre tok post -> small_table r -> rok r.
Proof.
  intros [D O E W] S. split; [exact W|]. split; [exact S|]. destruct W as (_ & W2 & _). lia.
Qed.

Lemma small_table_set_offset r o : small_table r -> small_table (set_offset_raw r o).
Proof. intros H. exact H. Qed.

(** everything but the tree and the reader *)
Definition same_rest (s s' : pstate) : Prop :=
  p_scopeStack s' = p_scopeStack s /\ p_pkgEndStack s' = p_pkgEndStack s /\ p_streamEnd s' = p_streamEnd s /\
  p_resolvePasses s' = p_resolvePasses s /\ p_mergedScopes s' = p_mergedScopes s /\ p_relocatedObjects s' = p_relocatedObjects s /\
  p_allBlocks s' = p_allBlocks s /\ p_handle s' = p_handle s /\ p_tables s' = p_tables s.

Lemma same_rest_refl s : same_rest s s.
Proof. unfold same_rest. repeat split. Qed.

Lemma same_rest_trans a b c : same_rest a b -> same_rest b c -> same_rest a c.
Proof. unfold same_rest. intros (A1&A2&A3&A4&A5&A6&A7&A8&A9) (B1&B2&B3&B4&B5&B6&B7&B8&B9). repeat split; congruence. Qed.

(** ---- the rows of the opcode table that matter ---- *)
Lemma name_row : exists i fl af,
  opcodeTableIndex aml_pOpName false = Some i /\ i <> aml_badOpcode /\ opInfo i = Some (aml_pOpName, fl, af) /\
  argCount af = 2 /\ argType af 0 = aml_pArgTypeNameString /\ argType af 1 = aml_pArgTypeDataRefObj /\
  hasFlag fl aml_pOpFlagNamed = true /\ termArgIndex af = 1.
Proof. do 3 eexists. repeat split; try reflexivity. discriminate. Qed.

Definition nmstr (seg : N) : namestr := mkName false 0 false [seg].

Lemma enc_nmstr seg : enc_name (nmstr seg) = seg_bytes seg.
Proof. unfold enc_name, nmstr. cbn [n_root n_carets n_segs n_multi N.to_nat repeat app orb flat_map]. cbn. reflexivity. Qed.

Lemma lenN_seg_bytes seg : lenN (seg_bytes seg) = 4.
Proof. reflexivity. Qed.

Lemma wf_nmstr seg : seg_ok seg = true -> wf_name (nmstr seg).
Proof.
  intros H. unfold wf_name, nmstr. cbn [n_segs n_multi]. split; [reflexivity|]. right.
  unfold seg_ok in H. cbn [seg_bytes] in H. unfold seg_lead.
  apply andb_prop in H. destruct H as (H & _). apply andb_prop in H. destruct H as (H & _). apply andb_prop in H. destruct H as (H & _).
  apply andb_prop in H. destruct H as (_ & H).
  unfold lead_charb in H. unfold lead_char. remember (N.land (N.shiftr seg 24) 255) as a eqn:Ea. clear Ea. lia.
Qed.

(** decide the closed conditions of the goal by computation *)
Ltac ifc :=
  match goal with
  | |- context [if ?c then _ else _] =>
      let v := eval vm_compute in c in
      match v with
      | true => change c with true
      | false => change c with false
      end; cbv iota
  end.

Lemma name_row_t : exists i fl af,
  opcodeTableIndex aml_pOpName true = Some i /\ opInfo i = Some (aml_pOpName, fl, af) /\
  argCount af = 2 /\ argType af 0 = aml_pArgTypeNameString /\ argType af 1 = aml_pArgTypeDataRefObj /\
  hasFlag fl aml_pOpFlagNamed = true /\ termArgIndex af = 1.
Proof. do 3 eexists. repeat split; reflexivity. Qed.

Lemma valid_name_op : valid_opcode aml_pOpName.
Proof. split; [vm_compute; discriminate|]. eexists. split; [reflexivity|discriminate]. Qed.

Definition cur_tbl (s : pstate) : N := N.of_nat (length (p_tables s)) - 1.

Lemma name_stmt_spec seg f s g pre rest :
  seg_ok seg = true ->
  FI s g -> glive g 0 -> p_scopeStack s = [0] -> lp s + 3 < InvalidIndex ->
  at_token (p_r s) pre (OP_NAME :: seg_bytes seg ++ rest) [] ->
  wp False (parseNextObject (5 + f)) s (fun res s' => res = ROk /\ exists g' n p,
     FI s' g' /\ same_rest s s' /\ p_r s' = set_offset_raw (p_r s) (lenN pre + 5) /\
     ~ glive g n /\ ~ glive g p /\ n <> p /\ glive g' n /\ glive g' p /\ gext g g' /\
     kids g' 0 = kids g 0 ++ [n] /\ kids g' n = [p] /\ kids g' p = [] /\
     (forall q, glive g q -> q <> 0 -> kids g' q = kids g q) /\
     oldframe g (p_tree s) (p_tree s') /\ lp s' <= lp s + 2 /\
     (exists o, tget (p_tree s') n = Some o /\ o_opcode o = aml_pOpName /\ o_tableHandle o = p_handle s /\ o_value o = None /\
                opcodeTableIndex aml_pOpName true = Some (o_infoIndex o)) /\
     (exists o, tget (p_tree s') p = Some o /\ o_opcode o = aml_pOpIntNamePath /\ o_tableHandle o = p_handle s /\
                o_value o = Some (VBytes (cur_tbl s) (mkSlice (Some (lenN pre + 1)) 4)) /\
                opcodeTableIndex aml_pOpIntNamePath true = Some (o_infoIndex o))).
Proof.
  intros Hseg H H0 Hst Hlp Htok.
  change (5 + f)%nat with (S (S (S (S (S f))))). cbn [parseNextObject].
  pose proof (fi_rok _ _ H) as (_ & Hsm & _).
  pose proof (R_gwf _ _ (fi_R _ _ H)) as Hwf.
  apply wp_bind, wp_get.
  (* the opcode *)
  change (OP_NAME :: seg_bytes seg ++ rest) with (enc_op aml_pOpName ++ (seg_bytes seg ++ rest)) in Htok.
  pose proof (opcode_roundtrip aml_pOpName _ _ _ valid_name_op (at_split _ _ _ _ _ Htok)) as Eop.
  apply wp_bind. apply wp_lex. do 3 eexists. split; [exact Eop|].
  pose proof (at_adv _ _ _ _ _ Htok) as Htok1.
  change (lenN (enc_op aml_pOpName)) with 1 in *.
  set (r1 := set_offset_raw (p_r s) (lenN pre + 1)) in *.
  assert (Hrok1 : rok r1) by (eapply at_token_rok; [exact Htok1|exact Hsm]).
  assert (H1 : FI (with_r s r1) g) by (apply FI_with_r; auto).
  ifc. cbn [negb]. cbv iota.
  (* the Name object *)
  apply wp_bind. eapply new_step_x; [exact H1|apply (newokb_sound aml_pOpName eq_refl)|unfold lp in *; pcbn; lia|].
  intros n t2 no g2 H2 Hfn Hln Hrn Hkn Hext2 Hno Hnop Hnval Hnth Hnidx Hof2 Hl2.
  set (s2 := with_tree (with_r s r1) t2) in *.
  wwrf H2 Hln. intros o3 Hg3 Hlo3 H3.
  match type of H3 with FI ?st _ => set (s3 := st) in * end.
  assert (Hg3' : tget t2 n = Some o3) by exact Hg3. assert (o3 = no) by congruence. subst o3.
  (* append to the root *)
  assert (Est3 : p_scopeStack s3 = [0]) by exact Hst.
  apply wp_bind. eapply wp_scopeCurrent; [exact Est3|].
  rewrite (FI_ObjectAt _ _ _ H3 (ge_live _ _ Hext2 _ H0)).
  apply wp_bind. eapply (append_step _ 0 n s3 g2 g); [exact H3|exact Hwf|exact Hext2|exact H0|exact Hfn|exact Hln|exact Hrn|].
  intros t4 H4 Hext4 Hpf4 Hk4 Hk4'.
  set (g4 := astep g2 (OpAppend 0 n)) in *.
  set (s4 := with_tree s3 t4) in *.
  (* parseObjectArgs *)
  cbn [parseObjectArgs].
  assert (Hno3 : tget (p_tree s3) n = Some (set_amlOffset (r_offset (p_r s)) no)).
  { unfold s3, s2. pcbn. rewrite get_tset, N.eqb_refl, Hno. reflexivity. }
  destruct (pframe_get _ _ _ _ Hpf4 Hno3) as (no4 & Hno4 & Eop4 & Eii4 & Eval4).
  cbn [o_opcode o_infoIndex o_value set_amlOffset] in Eop4, Eii4, Eval4.
  apply wp_bind. apply wp_rdf. exists no4. split; [exact Hno4|]. rewrite Eop4, Hnop.
  apply wp_bind, wp_get.
  apply wp_bind. repeat ifc.
  apply wp_bind. apply wp_rdf. exists no4. split; [exact Hno4|]. rewrite Eii4.
  destruct name_row_t as (i8 & fl & af & Hi8 & Hrow & Hcnt & Ht0 & Ht1 & Hnamed & Htai).
  rewrite Hi8 in Hnidx. inversion Hnidx as [Hii]. rewrite <- Hii.
  apply wp_bind. eapply wp_info; [exact Hrow|].
  (* parseArgs, argument 0: the name string *)
  cbn [parseArgs]. rewrite Hcnt. repeat ifc.
  apply wp_bind. cbn [parseArg]. rewrite Ht0. repeat ifc.
  unfold parseSimpleArg.
  assert (Hlp4 : lp s4 + 1 < InvalidIndex).
  { unfold lp. unfold s4. pcbn. destruct Hpf4 as (L4 & _). rewrite L4. unfold s3. pcbn. rewrite tset_len. unfold s2. pcbn.
    pcbn_in Hl2. unfold lp in Hlp. clear -Hl2 Hlp; lia. }
  apply wp_bind. eapply new_step_x; [exact H4|apply (newokb_sound 0 eq_refl)|exact Hlp4|].
  intros p t5 po g5 H5 Hfp Hlp5 Hrp Hkp Hext5 Hpo Hpop Hpval Hpth Hpidx Hof5 Hl5.
  set (s5 := with_tree s4 t5) in *.
  apply wp_bind, wp_get.
  wwrf H5 Hlp5. intros o6 Hg6 Hlo6 H6.
  apply wp_bind, wp_get.
  repeat ifc.
  wwrf H6 Hlp5. intros o7 Hg7 Hlo7 H7.
  (* the name *)
  pose proof (at_adv r1 (pre ++ enc_op aml_pOpName) (seg_bytes seg) rest []) as Hsh.
  rewrite <- (enc_nmstr seg) in Htok1.
  pose proof (name_roundtrip (nmstr seg) r1 _ _ (wf_nmstr seg Hseg) (at_split _ _ _ _ _ Htok1)) as Enm.
  apply wp_bind. apply wp_lex. do 3 eexists. split; [exact Enm|].
  rewrite (enc_nmstr seg) in *.
  assert (Esl : name_slice_len (nmstr seg) = 4) by reflexivity. rewrite Esl.
  rewrite lenN_app, lenN_seg_bytes. change (lenN (enc_op aml_pOpName)) with 1.
  set (r8 := set_offset_raw r1 (lenN pre + 1 + 4)).
  assert (Hrok8 : rok r8).
  { pose proof (at_adv _ _ _ _ _ Htok1) as Ht8. rewrite lenN_app, lenN_seg_bytes in Ht8.
    change (lenN (enc_op aml_pOpName)) with 1 in Ht8. eapply at_token_rok; [exact Ht8|exact Hsm]. }
  match type of H7 with FI ?st _ => set (s7 := st) in * end.
  assert (H8 : FI (with_r s7 r8) g5) by (apply FI_with_r; auto).
  wwrf H8 Hlp5. intros o9 Hg9 Hlo9 H9.
  apply wp_bind. eapply wp_tableIndex; [reflexivity|].
  wwrf H9 Hlp5. { intros E. vm_compute in E. discriminate E. } intros o10 Hg10 Hlo10 H10.
  apply wp_ret.
  match type of H10 with FI ?st _ => set (s10 := st) in * end.
  (* append the name path to the Name object *)
  assert (Hwf4 : gwf g4) by (apply (R_gwf _ _ (fi_R _ _ H4))).
  assert (Hln4 : glive g4 n) by (apply glive_set_kids; exact Hln).
  apply wp_bind. eapply (append_step _ n p s10 g5 g4); [exact H10|exact Hwf4|exact Hext5|exact Hln4|exact Hfp|exact Hlp5|exact Hrp|].
  intros t11 H11 Hext11 Hpf11 Hk11 Hk11'.
  set (g11 := astep g5 (OpAppend n p)) in *.
  set (s11 := with_tree s10 t11) in *.
  (* argument 1: DataRefObj *)
  cbn [pres_of_bool pres_eqb]. cbv iota. change (w8 (0 + 1)) with 1. rewrite Ht1. repeat ifc.
  apply wp_bind. apply wp_bind, wp_get. rewrite (fi_skip _ _ H11). apply wp_ret.
  apply wp_bind. apply wp_ret. cbn [pres_eqb]. cbv iota. apply wp_ret. apply wp_ret.
  split; [reflexivity|].
  exists g11, n, p.
  assert (Hn0 : n <> 0) by (intros ->; contradiction).
  assert (Hfp0 : ~ glive g p) by (intros Hc; apply Hfp; apply (ge_live _ _ Hext4); exact Hc).
  assert (Hnp : n <> p) by (intros ->; contradiction).
  assert (Hp0 : p <> 0) by (intros ->; apply Hfp0; exact H0).
  assert (H0lt2 : 0 < N.of_nat (length (g_kids g2))) by (apply glive_lt; apply (ge_live _ _ Hext2); exact H0).
  assert (Hnlt5 : n < N.of_nat (length (g_kids g5))) by (apply glive_lt; apply (ge_live _ _ Hext5); exact Hln4).
  assert (K11 : forall q, kids g11 q = if q =? n then kids g5 n ++ [p] else kids g5 q) by (intros q; apply kids_append; exact Hnlt5).
  assert (K5 : forall q, kids g5 q = kids g4 q) by (intros q; apply kids_new).
  assert (K4 : forall q, kids g4 q = if q =? 0 then kids g2 0 ++ [n] else kids g2 q) by (intros q; apply kids_append; exact H0lt2).
  assert (K2 : forall q, kids g2 q = kids g q) by (intros q; apply kids_new).
  split; [exact H11|].
  split; [unfold same_rest; repeat split|].
  split. { change (p_r s11) with r8. unfold r8, r1. rewrite set_offset_raw_twice. f_equal. clear; lia. }
  split; [exact Hfn|]. split; [exact Hfp0|]. split; [exact Hnp|].
  split; [apply glive_set_kids; apply (ge_live _ _ Hext5); exact Hln4|].
  split; [apply glive_set_kids; exact Hlp5|].
  split; [eapply gext_trans; [exact Hext4|exact Hext11]|].
  assert (E0n : (0 =? n) = false) by (apply N.eqb_neq; intros E; apply Hn0; symmetry; exact E).
  assert (En0 : (n =? 0) = false) by (apply N.eqb_neq; exact Hn0).
  assert (Epn : (p =? n) = false) by (apply N.eqb_neq; intros E; apply Hnp; symmetry; exact E).
  split. { rewrite K11, E0n, K5, K4, N.eqb_refl, K2. reflexivity. }
  split. { rewrite K11, N.eqb_refl, K5, K4, En0. rewrite Hkn. reflexivity. }
  split. { rewrite K11, Epn. exact Hkp. }
  split. { intros q Hq Hq0. assert (Hqn : q <> n) by (intros ->; contradiction).
           apply N.eqb_neq in Hqn. apply N.eqb_neq in Hq0. rewrite K11, Hqn, K5, K4, Hq0, K2. reflexivity. }
  (* the objects *)
  assert (E7 : o7 = set_amlOffset (r_offset (p_r s5)) o6).
  { pcbn_in Hg7. rewrite get_tset, N.eqb_refl in Hg7. pcbn_in Hg6. rewrite Hg6 in Hg7. inversion Hg7. reflexivity. }
  assert (E9 : o9 = set_opcode aml_pOpIntNamePath o7).
  { unfold s7 in Hg9. pcbn_in Hg9. rewrite get_tset, N.eqb_refl in Hg9. pcbn_in Hg7. rewrite Hg7 in Hg9. inversion Hg9. reflexivity. }
  assert (E10 : exists vv, o10 = set_value vv o9 /\ vv = Some (bytesValue (cur_tbl s) (mkSlice (Some (lenN pre + 1)) 4))).
  { eexists. split; [|reflexivity]. pcbn_in Hg10. rewrite get_tset, N.eqb_refl in Hg10. pcbn_in Hg9. rewrite Hg9 in Hg10. inversion Hg10. reflexivity. }
  destruct E10 as (vv & E10 & Evv).
  assert (Hp10 : tget (p_tree s10) p = Some (set_infoIndex 118 o10)).
  { unfold s10. pcbn. rewrite get_tset, N.eqb_refl. pcbn_in Hg10. rewrite Hg10. reflexivity. }
  assert (o6 = po) by (unfold s5 in Hg6; pcbn_in Hg6; congruence). subst o6.
  destruct Hpf11 as (L11 & Hpf11).
  destruct (Hpf11 _ _ Hp10) as (po11 & Hpo11 & Q1 & Q2 & Q3 & Q4 & Q5 & Q6 & Q7 & Q8).
  (* frames *)
  assert (Hp4 : forall i o, i <> p -> tget (p_tree s4) i = Some o -> glive g4 i ->
                 exists o', tget (p_tree s11) i = Some o' /\ pay_eq o o').
  { intros i o Hip Hg Hli. destruct (Hof5 i o Hli Hg) as (o5 & G5 & E5).
    assert (G10 : tget (p_tree s10) i = Some o5).
    { apply N.eqb_neq in Hip. unfold s10. pcbn. rewrite get_tset, Hip. unfold s7. pcbn. rewrite !get_tset, Hip. exact G5. }
    destruct (Hpf11 _ _ G10) as (o11 & G11 & E11). exists o11. split; [exact G11|exact (pay_eq_trans _ _ _ E5 E11)]. }
  assert (Hof : oldframe g (p_tree s) (p_tree s11)).
  { intros i o Hi Hg. destruct (Hof2 i o Hi Hg) as (o2 & G2 & E2).
    assert (Hin : i <> n) by (intros ->; contradiction). assert (Hip : i <> p) by (intros ->; contradiction).
    assert (G3 : tget (p_tree s3) i = Some o2).
    { apply N.eqb_neq in Hin. unfold s3, s2. pcbn. rewrite get_tset, Hin. exact G2. }
    destruct Hpf4 as (_ & Hpf4'). destruct (Hpf4' _ _ G3) as (o4 & G4 & E4).
    destruct (Hp4 i o4 Hip G4 (ge_live _ _ Hext4 _ Hi)) as (o11 & G11 & E11). exists o11. split; [exact G11|exact (pay_eq_trans _ _ _ (pay_eq_trans _ _ _ E2 E4) E11)]. }
  split; [exact Hof|].
  split.
  { unfold lp, s11. pcbn. rewrite L11. unfold s10. pcbn. rewrite !tset_len. unfold s7. pcbn. rewrite !tset_len. unfold s5. pcbn.
    destruct Hpf4 as (L4 & _). pcbn_in Hl5. unfold s4 in Hl5. pcbn_in Hl5. rewrite L4 in Hl5. unfold s3 in Hl5. pcbn_in Hl5. rewrite tset_len in Hl5.
    unfold s2 in Hl5. pcbn_in Hl5. pcbn_in Hl2. clear -Hl5 Hl2; lia. }
  split.
  { (* the Name object: unchanged since the append to the root *)
    destruct (Hp4 n no4 Hnp Hno4 Hln4) as (no11 & Hno11 & R1 & R2 & R3 & R4 & R5 & R6 & R7 & R8).
    destruct Hpf4 as (_ & Hpf4). destruct (Hpf4 _ _ Hno3) as (no4' & Hno4' & S1 & S2 & S3 & S4 & S5 & S6 & S7 & S8).
    assert (no4' = no4) by congruence. subst no4'.
    cbn [o_opcode o_infoIndex o_tableHandle o_value set_amlOffset] in S1, S2, S3, S8.
    exists no11. split; [exact Hno11|]. split; [congruence|]. split; [rewrite R3, S3; exact Hnth|]. split; [congruence|].
    rewrite R2, S2, <- Hii. exact Hi8. }
  exists po11. split; [exact Hpo11|].
  rewrite E10, E9, E7 in Q1, Q2, Q3, Q8. cbn [o_opcode o_infoIndex o_tableHandle o_value set_infoIndex set_value set_opcode set_amlOffset] in Q1, Q2, Q3, Q8.
  split; [exact Q1|]. split; [rewrite Q3; exact Hpth|]. split.
  - rewrite Q8, Evv. unfold bytesValue. cbn [s_ptr]. reflexivity.
  - rewrite Q2. reflexivity.
Qed.

(** ---- the constant that follows: a statement of its own for the first pass ---- *)
Definition const_value (op v : N) : option value := match const_bytes op with O => None | _ => Some (VNum v) end.

Definition const_post (op v : N) (s : pstate) (g : ghost) (pre : list N) (res : pres) (s' : pstate) : Prop :=
  res = ROk /\ exists g' c,
     FI s' g' /\ same_rest s s' /\ p_r s' = set_offset_raw (p_r s) (lenN pre + 1 + N.of_nat (const_bytes op)) /\
     ~ glive g c /\ glive g' c /\ gext g g' /\
     kids g' 0 = kids g 0 ++ [c] /\ kids g' c = [] /\ (forall q, glive g q -> q <> 0 -> kids g' q = kids g q) /\
     oldframe g (p_tree s) (p_tree s') /\ lp s' <= lp s + 1 /\
     (exists o, tget (p_tree s') c = Some o /\ o_opcode o = op /\ o_tableHandle o = p_handle s /\ o_value o = const_value op v /\
                opcodeTableIndex op true = Some (o_infoIndex o)).

(** the common part: opcode, object, append to the root; [K] continues with parseObjectArgs *)
Lemma const_head op f s g pre tok (Q : pres -> pstate -> Prop) :
  valid_opcode op -> newok op -> enc_op op = [op] -> (op =? aml_pOpNoop) = false ->
  FI s g -> glive g 0 -> p_scopeStack s = [0] -> lp s + 3 < InvalidIndex ->
  at_token (p_r s) pre (enc_op op ++ tok) [] ->
  (forall c t4 co,
     let r1 := set_offset_raw (p_r s) (lenN pre + 1) in
     let g2 := astep g (OpNew op (p_handle s)) in
     let g4 := astep g2 (OpAppend 0 c) in
     let s4 := with_tree (with_r s r1) t4 in
     FI s4 g4 -> ~ glive g c -> glive g4 c -> gext g g4 -> at_token r1 (pre ++ [op]) tok [] ->
     kids g4 0 = kids g 0 ++ [c] -> kids g4 c = [] -> (forall q, glive g q -> q <> 0 -> kids g4 q = kids g q) ->
     oldframe g (p_tree s) t4 -> (length (t_pool t4) <= S (length (t_pool (p_tree s))))%nat ->
     tget t4 c = Some co -> o_opcode co = op -> o_tableHandle co = p_handle s -> o_value co = None ->
     opcodeTableIndex op true = Some (o_infoIndex co) ->
     wp False (parseObjectArgs (4 + f) c) s4 Q) ->
  wp False (parseNextObject (5 + f)) s Q.
Proof.
  intros Hvalid Hnk Henc Hnoop H H0 Hst Hlp Htok K.
  change (5 + f)%nat with (S (4 + f)). cbn [parseNextObject].
  pose proof (fi_rok _ _ H) as (_ & Hsm & _).
  pose proof (R_gwf _ _ (fi_R _ _ H)) as Hwf.
  apply wp_bind, wp_get.
  pose proof (opcode_roundtrip op _ _ _ Hvalid (at_split _ _ _ _ _ Htok)) as Eop.
  apply wp_bind. apply wp_lex. do 3 eexists. split; [exact Eop|].
  pose proof (at_adv _ _ _ _ _ Htok) as Htok1.
  rewrite Henc in *. change (lenN [op]) with 1 in *.
  set (r1 := set_offset_raw (p_r s) (lenN pre + 1)) in *.
  assert (Hrok1 : rok r1) by (eapply at_token_rok; [exact Htok1|exact Hsm]).
  assert (H1 : FI (with_r s r1) g) by (apply FI_with_r; auto).
  rewrite Hnoop. cbn [negb]. cbv iota.
  apply wp_bind. eapply new_step_x; [exact H1|exact Hnk|unfold lp in *; pcbn; lia|].
  intros c t2 co g2 H2 Hfc Hlc Hrc Hkc Hext2 Hco Hcop Hcval Hcth Hcidx Hof2 Hl2.
  set (s2 := with_tree (with_r s r1) t2) in *.
  wwrf H2 Hlc. intros o3 Hg3 Hlo3 H3.
  match type of H3 with FI ?st _ => set (s3 := st) in * end.
  assert (Hg3' : tget t2 c = Some o3) by exact Hg3. assert (o3 = co) by congruence. subst o3.
  assert (Est3 : p_scopeStack s3 = [0]) by exact Hst.
  apply wp_bind. eapply wp_scopeCurrent; [exact Est3|].
  rewrite (FI_ObjectAt _ _ _ H3 (ge_live _ _ Hext2 _ H0)).
  apply wp_bind. eapply (append_step _ 0 c s3 g2 g); [exact H3|exact Hwf|exact Hext2|exact H0|exact Hfc|exact Hlc|exact Hrc|].
  intros t4 H4 Hext4 Hpf4 Hk4 Hk4'.
  assert (Hc0 : c <> 0) by (intros ->; contradiction).
  assert (H0lt2 : 0 < N.of_nat (length (g_kids g2))) by (apply glive_lt; apply (ge_live _ _ Hext2); exact H0).
  assert (K4 : forall q, kids (astep g2 (OpAppend 0 c)) q = if q =? 0 then kids g2 0 ++ [c] else kids g2 q) by (intros q; apply kids_append; exact H0lt2).
  assert (K2 : forall q, kids g2 q = kids g q) by (intros q; apply kids_new).
  assert (Hco3 : tget (p_tree s3) c = Some (set_amlOffset (r_offset (p_r s)) co)).
  { unfold s3, s2. pcbn. rewrite get_tset, N.eqb_refl, Hco. reflexivity. }
  destruct Hpf4 as (L4 & Hpf4).
  destruct (Hpf4 _ _ Hco3) as (co4 & Hco4 & S1 & S2 & S3 & S4 & S5 & S6 & S7 & S8).
  cbn [o_opcode o_infoIndex o_tableHandle o_value set_amlOffset] in S1, S2, S3, S8.
  apply (K c t4 co4); auto.
  - apply glive_set_kids. exact Hlc.
  - rewrite K4, N.eqb_refl, K2. reflexivity.
  - apply N.eqb_neq in Hc0. rewrite K4, Hc0. exact Hkc.
  - intros q Hq Hq0. apply N.eqb_neq in Hq0. rewrite K4, Hq0, K2. reflexivity.
  - intros i o Hi Hg. destruct (Hof2 i o Hi Hg) as (o2 & G2 & E2).
    assert (Hic : i <> c) by (intros ->; contradiction).
    assert (G3 : tget (p_tree s3) i = Some o2).
    { apply N.eqb_neq in Hic. unfold s3, s2. pcbn. rewrite get_tset, Hic. exact G2. }
    destruct (Hpf4 _ _ G3) as (o4 & G4 & E4). exists o4. split; [exact G4|exact (pay_eq_trans _ _ _ E2 E4)].
  - unfold s3, s2 in L4. pcbn_in L4. rewrite tset_len in L4. rewrite L4. pcbn_in Hl2. exact Hl2.
  - congruence.
  - rewrite S3. exact Hcth.
  - congruence.
  - rewrite S2. exact Hcidx.
Qed.

Lemma const_fin op v s g pre c g4 (k : nat) s5 : const_bytes op = k ->
     FI s5 g4 -> same_rest s s5 -> p_r s5 = set_offset_raw (p_r s) (lenN pre + 1 + N.of_nat k) ->
     ~ glive g c -> glive g4 c -> gext g g4 ->
     kids g4 0 = kids g 0 ++ [c] -> kids g4 c = [] -> (forall q, glive g q -> q <> 0 -> kids g4 q = kids g q) ->
     oldframe g (p_tree s) (p_tree s5) -> lp s5 <= lp s + 1 ->
     (exists o, tget (p_tree s5) c = Some o /\ o_opcode o = op /\ o_tableHandle o = p_handle s /\ o_value o = const_value op v /\
                opcodeTableIndex op true = Some (o_infoIndex o)) ->
     const_post op v s g pre ROk s5.
Proof. intros Ek F1 F2 F3 G1 G2 G3 G4 G5 G6 F4 F5 F6. split; [reflexivity|]. exists g4, c. rewrite Ek. auto 14. Qed.

Lemma const_simple_spec op v f s g pre rest :
  op = aml_pOpZero \/ op = aml_pOpOne \/ op = aml_pOpOnes ->
  FI s g -> glive g 0 -> p_scopeStack s = [0] -> lp s + 3 < InvalidIndex ->
  at_token (p_r s) pre (enc_op op ++ rest) [] ->
  wp False (parseNextObject (5 + f)) s (const_post op v s g pre).
Proof.
  intros Hop H H0 Hst Hlp Htok.
  destruct Hop as [->|[->| ->]];
  (refine (const_head _ f s g pre rest _ _ _ _ _ H H0 Hst Hlp Htok _);
     [split; [vm_compute; discriminate|eexists; split; [reflexivity|discriminate]]
     |apply newokb_sound; reflexivity|reflexivity|reflexivity|];
   intros c t4 co r1 g2 g4 s4 H4 Hfc Hlc Hext4 Htok1 Hk0 Hkc Hko Hof Hl4 Hco Hcop Hcth Hcval Hcidx;
   change (4 + f)%nat with (S (3 + f)); cbn [parseObjectArgs];
   apply wp_bind; apply wp_rdf; exists co; split; [exact Hco|]; rewrite Hcop;
   apply wp_bind, wp_get;
   apply wp_bind; repeat ifc;
   apply wp_bind; apply wp_rdf; exists co; split; [exact Hco|];
   match type of Hcidx with ?lhs = _ => let vv := eval vm_compute in lhs in change lhs with vv in Hcidx end;
   injection Hcidx as Hii; rewrite <- Hii;
   apply wp_bind; eapply wp_info; [reflexivity|];
   change (3 + f)%nat with (S (2 + f)); cbn [parseArgs]; repeat ifc; apply wp_ret; apply wp_ret;
   refine (const_fin _ v s g pre c g4 0%nat s4 _ H4 _ _ Hfc Hlc Hext4 Hk0 Hkc Hko Hof _ _);
   [reflexivity|unfold same_rest; repeat split|unfold s4; pcbn; unfold r1; f_equal; clear; lia|unfold lp, s4 in *; pcbn; clear -Hl4; lia|
    exists co; repeat split; auto; rewrite <- Hii; reflexivity]).
Qed.

Lemma const_prefix_spec op v f s g pre rest :
  op = OP_BYTE \/ op = OP_WORD \/ op = OP_DWORD \/ op = OP_QWORD ->
  v < N.shiftl 1 (N.of_nat (const_bytes op) * 8) ->
  FI s g -> glive g 0 -> p_scopeStack s = [0] -> lp s + 3 < InvalidIndex ->
  at_token (p_r s) pre (enc_op op ++ le_bytes (const_bytes op) v ++ rest) [] ->
  wp False (parseNextObject (5 + f)) s (const_post op v s g pre).
Proof.
  intros Hop Hv H H0 Hst Hlp Htok.
  pose proof (fi_rok _ _ H) as (_ & Hsm & _).
  destruct Hop as [->|[->|[->| ->]]];
  (refine (const_head _ f s g pre _ _ _ _ _ _ H H0 Hst Hlp Htok _);
     [split; [vm_compute; discriminate|eexists; split; [reflexivity|discriminate]]
     |apply newokb_sound; reflexivity|reflexivity|reflexivity|];
   intros c t4 co r1 g2 g4 s4 H4 Hfc Hlc Hext4 Htok1 Hk0 Hkc Hko Hof Hl4 Hco Hcop Hcth Hcval Hcidx;
   change (4 + f)%nat with (S (3 + f)); cbn [parseObjectArgs];
   apply wp_bind; apply wp_rdf; exists co; split; [exact Hco|]; rewrite Hcop;
   apply wp_bind, wp_get;
   apply wp_bind; repeat ifc;
   match goal with |- context [parseNumConstant ?kk] =>
     pose proof (num_roundtrip (N.to_nat kk) v r1 _ _ ltac:(cbn; clear; lia) ltac:(cbn in Hv |- *; clear -Hv; lia) (at_split _ _ _ _ _ Htok1)) as Enum;
     pose proof (at_adv _ _ _ _ _ Htok1) as Htok5
   end;
   cbn [N.to_nat Pos.to_nat Pos.iter_op Nat.add N.of_nat Pos.of_succ_nat Pos.succ] in Enum;
   apply wp_bind; apply wp_lex; do 3 eexists; (split; [exact Enum|]);
   match goal with |- context [with_r s4 ?rr] => set (r5 := rr) in * end;
   assert (Hrok5 : rok r5) by (eapply at_token_rok; [exact Htok5|exact Hsm]);
   assert (H5 : FI (with_r s4 r5) g4) by (apply FI_with_r; auto);
   wwrf H5 Hlc; intros o6 Hg6 Hlo6 H6;
   apply wp_ret; apply wp_ret;
   match type of H6 with FI ?st _ => set (s6 := st) in * end;
   refine (const_fin _ v s g pre c g4 _ s6 eq_refl H6 _ _ Hfc Hlc Hext4 Hk0 Hkc Hko _ _ _);
   [unfold same_rest; repeat split
   |unfold s6; pcbn; unfold r5, r1; rewrite set_offset_raw_twice; f_equal; rewrite lenN_app; cbn; clear; lia
   |intros i o Hi Hg; destruct (Hof i o Hi Hg) as (o4 & G4 & E4); exists o4; split; [|exact E4];
    assert (Hic : i <> c) by (intros ->; contradiction); apply N.eqb_neq in Hic;
    unfold s6; pcbn; rewrite get_tset, Hic; exact G4
   |unfold lp, s6 in *; pcbn; rewrite tset_len; unfold s4; pcbn; clear -Hl4; lia
   |eexists; split; [unfold s6; pcbn; rewrite get_tset, N.eqb_refl; unfold s4; pcbn; rewrite Hco; reflexivity|];
    cbn [o_opcode o_tableHandle o_value o_infoIndex set_value]; repeat split; auto]).
Qed.

Lemma const_stmt_spec op v f s g pre rest :
  is_const_op op = true -> v < N.shiftl 1 (N.of_nat (const_bytes op) * 8) ->
  FI s g -> glive g 0 -> p_scopeStack s = [0] -> lp s + 3 < InvalidIndex ->
  at_token (p_r s) pre (enc_op op ++ le_bytes (const_bytes op) v ++ rest) [] ->
  wp False (parseNextObject (5 + f)) s (const_post op v s g pre).
Proof.
  intros Hop Hv H H0 Hst Hlp Htok.
  destruct (is_constb_cases op Hop) as [E|[E|[E|E]]].
  - apply (const_simple_spec op v f s g pre rest); auto. subst op. exact Htok.
  - apply (const_simple_spec op v f s g pre rest); auto. subst op. exact Htok.
  - apply (const_simple_spec op v f s g pre rest); auto. subst op. exact Htok.
  - apply (const_prefix_spec op v f s g pre rest); auto.
Qed.

(** ---- items ---- *)
Record item : Type := mkItem { i_seg : N; i_op : N; i_v : N }.

Definition item_ok (it : item) : Prop :=
  seg_ok (i_seg it) = true /\ is_const_op (i_op it) = true /\ i_v it < N.shiftl 1 (N.of_nat (const_bytes (i_op it)) * 8).

Definition item_ast (it : item) : ast := AName (nmstr (i_seg it)) (AConst (i_op it) (i_v it)).

Definition item_bytes (it : item) : list N :=
  OP_NAME :: seg_bytes (i_seg it) ++ enc_op (i_op it) ++ le_bytes (const_bytes (i_op it)) (i_v it).

Lemma encode_item it : encode (item_ast it) = item_bytes it.
Proof. unfold item_ast, item_bytes. cbn [encode]. rewrite enc_nmstr. reflexivity. Qed.

(** the objects the first pass creates for an item: the Name object, its name path, the constant *)
Record iobj : Type := mkIobj { io_n : N; io_p : N; io_c : N; io_off : N }.

Definition has_pay (t : T) (i opc h : N) (v : option value) : Prop :=
  exists o, tget t i = Some o /\ o_opcode o = opc /\ o_tableHandle o = h /\ o_value o = v /\
            opcodeTableIndex opc true = Some (o_infoIndex o).

Lemma has_pay_frame g t t' i opc h v : oldframe g t t' -> glive g i -> has_pay t i opc h v -> has_pay t' i opc h v.
Proof.
  intros Hf Hl (o & Hg & A & B & C & D). destruct (Hf i o Hl Hg) as (o' & Hg' & E1 & E2 & E3 & _ & _ & _ & _ & E8).
  exists o'. split; [exact Hg'|]. repeat split; congruence.
Qed.

(** what the first pass leaves for one item (before connectNamedObjArgs) *)
Definition item_shape1 (t : T) (g : ghost) (h tbl : N) (it : item) (io : iobj) : Prop :=
  glive g (io_n io) /\ glive g (io_p io) /\ glive g (io_c io) /\
  io_n io <> 0 /\ io_p io <> 0 /\ io_c io <> 0 /\
  kids g (io_n io) = [io_p io] /\ kids g (io_p io) = [] /\ kids g (io_c io) = [] /\
  has_pay t (io_n io) aml_pOpName h None /\
  has_pay t (io_p io) aml_pOpIntNamePath h (Some (VBytes tbl (mkSlice (Some (io_off io)) 4))) /\
  has_pay t (io_c io) (i_op it) h (const_value (i_op it) (i_v it)).

(** later statements leave earlier objects alone *)
Definition frame1 (g : ghost) (t : T) (g' : ghost) (t' : T) : Prop :=
  gext g g' /\ (forall q, glive g q -> q <> 0 -> kids g' q = kids g q) /\ oldframe g t t'.

Lemma frame1_trans g0 t0 g1 t1 g2 t2 : frame1 g0 t0 g1 t1 -> frame1 g1 t1 g2 t2 -> frame1 g0 t0 g2 t2.
Proof.
  intros (A1 & A2 & A3) (B1 & B2 & B3). split; [eapply gext_trans; eauto|]. split.
  - intros q Hq Hq0. rewrite B2; auto. apply (ge_live _ _ A1). exact Hq.
  - intros i o Hi Hg. destruct (A3 i o Hi Hg) as (o1 & G1 & E1).
    destruct (B3 i o1 (ge_live _ _ A1 _ Hi) G1) as (o2 & G2 & E2). exists o2. split; [exact G2|exact (pay_eq_trans _ _ _ E1 E2)].
Qed.

Lemma item_shape1_frame t g t' g' h tbl it io : frame1 g t g' t' -> item_shape1 t g h tbl it io -> item_shape1 t' g' h tbl it io.
Proof.
  intros (F1 & F2 & F3) (L1 & L2 & L3 & N1 & N2 & N3 & K1 & K2 & K3 & P1 & P2 & P3).
  unfold item_shape1.
  split; [apply (ge_live _ _ F1); exact L1|]. split; [apply (ge_live _ _ F1); exact L2|]. split; [apply (ge_live _ _ F1); exact L3|].
  split; [exact N1|]. split; [exact N2|]. split; [exact N3|].
  split; [rewrite F2; auto|]. split; [rewrite F2; auto|]. split; [rewrite F2; auto|].
  split; [eapply has_pay_frame; eauto|]. split; eapply has_pay_frame; eauto.
Qed.

(** ---- the inner loop of parseObjectList over the items ---- *)
Definition pairs_kids (l : list (item * iobj)) : list N := flat_map (fun x => [io_n (snd x); io_c (snd x)]) l.

Fixpoint offs_ok (pre : list N) (l : list (item * iobj)) : Prop :=
  match l with
  | [] => True
  | x :: r => io_off (snd x) = lenN pre + 1 /\ offs_ok (pre ++ item_bytes (fst x)) r
  end.

Definition items_bytes (l : list item) : list N := flat_map item_bytes l.

Lemma offs_ok_app pre l1 l2 : offs_ok pre (l1 ++ l2) <-> offs_ok pre l1 /\ offs_ok (pre ++ items_bytes (map fst l1)) l2.
Proof.
  revert pre. induction l1 as [|x l1 IH]; intros pre; cbn [app offs_ok map items_bytes flat_map].
  - rewrite app_nil_r. tauto.
  - rewrite IH. rewrite <- app_assoc. tauto.
Qed.

Record Inv1 (hdr D : list N) (g0 : ghost) (t0 : T) (lp0 : N) (done : list (item * iobj)) (s : pstate) (g : ghost) : Prop := mkInv1 {
  i1_FI : FI s g;
  i1_st : p_scopeStack s = [0];
  i1_live0 : glive g 0;
  i1_kids0 : kids g 0 = D ++ pairs_kids done;
  i1_items : Forall (fun x => item_shape1 (p_tree s) g (p_handle s) (cur_tbl s) (fst x) (snd x)) done;
  i1_offs : offs_ok hdr done;
  i1_frame : frame1 g0 t0 g (p_tree s);
  i1_lp : lp s <= lp0 + 3 * lenN done;
  i1_end : r_pkgEnd (p_r s) = lenN (r_data (p_r s))
}.

Lemma eof_at_token r pre tok : at_token r pre tok [] -> r_pkgEnd r = lenN (r_data r) ->
  eof r = match tok with [] => true | _ => false end.
Proof.
  intros [D O E W] Hend. unfold eof. rewrite O, Hend, D, app_nil_r, lenN_app.
  destruct tok as [|b tok]; [apply N.leb_le; cbn; lia|apply N.leb_gt; rewrite lenN_cons; lia].
Qed.

Lemma inner_names hdr D g0 t0 lp0 : forall rest done fuel s g,
  Inv1 hdr D g0 t0 lp0 done s g -> Forall item_ok rest ->
  at_token (p_r s) (hdr ++ items_bytes (map fst done)) (items_bytes rest) [] ->
  lp0 + 3 * lenN done + 3 * lenN rest + 3 < InvalidIndex ->
  (2 * length rest + 7 <= fuel)%nat ->
  wp False (objectList_inner fuel) s (fun ok s' => ok = true /\ exists g' done',
     Inv1 hdr D g0 t0 lp0 (done ++ done') s' g' /\ map fst done' = rest /\ same_rest s s' /\
     at_token (p_r s') (hdr ++ items_bytes (map fst (done ++ done'))) [] []).
Proof.
  induction rest as [|it rest IH]; intros done fuel s g HI Hok Htok Hlp Hf.
  - destruct fuel as [|fuel]; [lia|]. cbn [objectList_inner].
    apply wp_bind, wp_get. rewrite (eof_at_token _ _ _ Htok (i1_end _ _ _ _ _ _ _ _ HI)). cbn [items_bytes flat_map].
    apply wp_ret. split; [reflexivity|]. exists g, []. rewrite app_nil_r. split; [exact HI|]. split; [reflexivity|].
    split; [apply same_rest_refl|exact Htok].
  - destruct fuel as [|fuel]; [lia|]. cbn [objectList_inner].
    inversion Hok as [|x l (Hseg & Hop & Hv) Hok' E1]; subst x l.
    destruct HI as [HFI Hst H0 Hk0 Hitems Hoffs Hframe Hlpi Hend].
    apply wp_bind, wp_get. rewrite (eof_at_token _ _ _ Htok Hend).
    cbn [items_bytes flat_map] in Htok |- *. unfold item_bytes at 1 in Htok. cbn [app] in Htok |- *.
    rewrite <- !app_assoc in Htok.
    replace (lenN (it :: rest)) with (1 + lenN rest) in Hlp by (unfold lenN; cbn [length]; clear; lia).
    (* the Name statement *)
    apply wp_bind. destruct fuel as [|[|[|[|[|[|fuel]]]]]]; try (cbn [length] in Hf; lia).
    assert (Hlp' : lp s + 3 < InvalidIndex) by (clear -Hlp Hlpi; lia).
    eapply wp_weaken; [exact (name_stmt_spec (i_seg it) (S fuel) s g _ _ Hseg HFI H0 Hst Hlp' Htok)|intros []|].
    intros res s1 (-> & g1 & n & p & H1 & SR1 & Er1 & Hfn & Hfp & Hnp & Hln & Hlp1 & Hext1 & K0 & Kn & Kp & Ko & Hof1 & Hlp1' & Pn & Pp).
    cbn [pres_eqb]. cbv iota.
    (* the constant *)
    cbn [objectList_inner].
    assert (Htok1 : at_token (p_r s1) ((hdr ++ items_bytes (map fst done)) ++ OP_NAME :: seg_bytes (i_seg it))
                       (enc_op (i_op it) ++ le_bytes (const_bytes (i_op it)) (i_v it) ++ items_bytes rest) []).
    { rewrite Er1. pose proof (at_adv (p_r s) _ (OP_NAME :: seg_bytes (i_seg it)) _ [] Htok) as Hs.
      rewrite lenN_cons, lenN_seg_bytes in Hs. replace (lenN (hdr ++ items_bytes (map fst done)) + 5) with (lenN (hdr ++ items_bytes (map fst done)) + (1 + 4)) by (clear; lia).
      exact Hs. }
    destruct SR1 as (S1 & S2 & S3 & S4 & S5 & S6 & S7 & S8 & S9).
    assert (Hend1 : r_pkgEnd (p_r s1) = lenN (r_data (p_r s1))) by (rewrite Er1; exact Hend).
    apply wp_bind, wp_get. rewrite (eof_at_token _ _ _ Htok1 Hend1).
    assert (Hne : exists b tl, enc_op (i_op it) ++ le_bytes (const_bytes (i_op it)) (i_v it) ++ items_bytes rest = b :: tl).
    { unfold enc_op. destruct (i_op it <=? 255); cbn [app]; eauto. }
    destruct Hne as (b & tl & Ene). rewrite Ene. cbv iota.
    assert (Hst1 : p_scopeStack s1 = [0]) by (rewrite S1; exact Hst).
    assert (Hlp1'' : lp s1 + 3 < InvalidIndex) by (clear -Hlp1' Hlp Hlpi; lia).
    apply wp_bind. eapply wp_weaken; [exact (const_stmt_spec (i_op it) (i_v it) fuel s1 g1 _ _ Hop Hv H1 (ge_live _ _ Hext1 _ H0) Hst1 Hlp1'' Htok1)|intros []|].
    intros res s2 (-> & g2 & c & H2 & SR2 & Er2 & Hfc & Hlc & Hext2 & K0' & Kc & Ko' & Hof2 & Hlp2 & Pc).
    cbn [pres_eqb]. cbv iota.
    (* the rest *)
    set (io := mkIobj n p c (lenN (hdr ++ items_bytes (map fst done)) + 1)).
    destruct SR2 as (T1 & T2 & T3 & T4 & T5 & T6 & T7 & T8 & T9).
    assert (HI2 : Inv1 hdr D g0 t0 lp0 (done ++ [(it, io)]) s2 g2).
    { assert (Fr1 : frame1 g (p_tree s) g1 (p_tree s1)) by (split; [exact Hext1|split; [exact Ko|exact Hof1]]).
      assert (Fr2 : frame1 g1 (p_tree s1) g2 (p_tree s2)) by (split; [exact Hext2|split; [exact Ko'|exact Hof2]]).
      assert (Fr : frame1 g (p_tree s) g2 (p_tree s2)) by (eapply frame1_trans; eauto).
      assert (Hn0 : n <> 0) by (intros ->; contradiction).
      assert (Hp0 : p <> 0) by (intros ->; contradiction).
      assert (Hc0 : c <> 0) by (intros ->; apply Hfc; apply (ge_live _ _ Hext1); exact H0).
      constructor.
      - exact H2.
      - rewrite T1, S1. exact Hst.
      - apply (ge_live _ _ Hext2). apply (ge_live _ _ Hext1). exact H0.
      - rewrite K0', K0, Hk0. unfold pairs_kids. rewrite flat_map_app. cbn [flat_map snd io_n io_c io app]. rewrite <- !app_assoc. reflexivity.
      - apply Forall_app. split.
        + eapply Forall_impl; [|exact Hitems]. intros x Hx. rewrite T8, S8. unfold cur_tbl. rewrite T9, S9.
          eapply item_shape1_frame; [exact Fr|exact Hx].
        + constructor; [|constructor]. cbn [fst snd]. unfold item_shape1. cbn [io_n io_p io_c io_off io].
          split; [apply (ge_live _ _ Hext2); exact Hln|]. split; [apply (ge_live _ _ Hext2); exact Hlp1|]. split; [exact Hlc|].
          split; [exact Hn0|]. split; [exact Hp0|]. split; [exact Hc0|].
          split; [rewrite Ko'; auto|]. split; [rewrite Ko'; auto|]. split; [exact Kc|].
          rewrite T8, S8. unfold cur_tbl. rewrite T9, S9.
          split; [eapply has_pay_frame; [exact Hof2|exact Hln|exact Pn]|].
          split; [eapply has_pay_frame; [exact Hof2|exact Hlp1|exact Pp]|].
          rewrite <- S8. exact Pc.
      - apply offs_ok_app. split; [exact Hoffs|]. cbn [offs_ok fst snd io_off io]. split; [reflexivity|exact I].
      - eapply frame1_trans; [exact Hframe|exact Fr].
      - rewrite lenN_app. change (lenN [(it, io)]) with 1. clear -Hlp2 Hlp1' Hlpi; lia.
      - rewrite Er2, Er1. exact Hend. }
    assert (Htok2 : at_token (p_r s2) (hdr ++ items_bytes (map fst (done ++ [(it, io)]))) (items_bytes rest) []).
    { rewrite Er2.
      assert (Htok1' : at_token (p_r s1) ((hdr ++ items_bytes (map fst done)) ++ OP_NAME :: seg_bytes (i_seg it))
                         ((enc_op (i_op it) ++ le_bytes (const_bytes (i_op it)) (i_v it)) ++ items_bytes rest) [])
        by (replace ((enc_op (i_op it) ++ le_bytes (const_bytes (i_op it)) (i_v it)) ++ items_bytes rest)
              with (enc_op (i_op it) ++ le_bytes (const_bytes (i_op it)) (i_v it) ++ items_bytes rest) by (rewrite app_assoc; reflexivity);
            exact Htok1).
      pose proof (at_adv _ _ _ _ _ Htok1') as Hs.
      assert (Epre : hdr ++ items_bytes (map fst (done ++ [(it, io)])) =
                     ((hdr ++ items_bytes (map fst done)) ++ OP_NAME :: seg_bytes (i_seg it)) ++ enc_op (i_op it) ++ le_bytes (const_bytes (i_op it)) (i_v it)).
      { rewrite map_app. cbn [map fst]. unfold items_bytes. rewrite flat_map_app. cbn [flat_map]. rewrite app_nil_r.
        unfold item_bytes. rewrite <- !app_assoc. reflexivity. }
      rewrite Epre.
      assert (El : lenN (enc_op (i_op it) ++ le_bytes (const_bytes (i_op it)) (i_v it)) = 1 + N.of_nat (const_bytes (i_op it))).
      { destruct (is_constb_cases _ Hop) as [E|[E|[E|[E|[E|[E|E]]]]]]; rewrite E; reflexivity. }
      rewrite El in Hs. rewrite N.add_assoc in Hs. exact Hs. }
    eapply wp_weaken; [apply (IH (done ++ [(it, io)]) (S (S (S (S (S fuel))))) s2 g2 HI2 Hok' Htok2)| |].
    + rewrite lenN_app. change (lenN [(it, io)]) with 1. clear -Hlp; lia.
    + cbn [length] in Hf. clear -Hf; lia.
    + intros [].
    + intros ok s' (-> & g' & done' & F1 & F2 & F3 & F4). split; [reflexivity|].
      exists g', ((it, io) :: done'). rewrite <- app_assoc in F1, F4. cbn [app] in F1, F4.
      split; [exact F1|]. split; [cbn [map fst]; rewrite F2; reflexivity|]. split; [|exact F4].
      assert (SR1 : same_rest s s1) by (unfold same_rest; repeat split; assumption).
      assert (SR2 : same_rest s1 s2) by (unfold same_rest; repeat split; assumption).
      exact (same_rest_trans _ _ _ (same_rest_trans _ _ _ SR1 SR2) F3).
Qed.

(** ---- the table image ---- *)
Definition hdr_bytes (payload : list N) : list N :=
  [0x44; 0x53; 0x44; 0x54] ++ le_bytes 4 (aml_sizeofSDTHeader + N.of_nat (length payload)) ++ [2] ++ repeat 0 (N.to_nat aml_sizeofSDTHeader - 9).

Lemma table_image_split payload : table_image payload = hdr_bytes payload ++ payload.
Proof. unfold table_image, hdr_bytes. rewrite <- !app_assoc. reflexivity. Qed.

Lemma lenN_hdr payload : lenN (hdr_bytes payload) = aml_sizeofSDTHeader.
Proof. reflexivity. Qed.

Lemma le_bytes_lt n : forall v, Forall (fun b => b < 256) (le_bytes n v).
Proof.
  induction n as [|n IH]; intros v; cbn [le_bytes]; constructor; auto.
  change 0xff with (N.ones 8). rewrite N.land_ones. apply N.mod_lt. discriminate.
Qed.

Lemma hdr_bytes_lt payload : Forall (fun b => b < 256) (hdr_bytes payload).
Proof.
  unfold hdr_bytes. apply Forall_app. split; [repeat constructor; lia|]. apply Forall_app. split; [apply le_bytes_lt|].
  apply Forall_app. split; [repeat constructor; lia|].
  apply Forall_forall. intros x Hx. apply repeat_spec in Hx. subst x. lia.
Qed.

Lemma seg_bytes_lt s : Forall (fun b => b < 256) (seg_bytes s).
Proof.
  unfold seg_bytes. repeat constructor; change 0xff with (N.ones 8); rewrite N.land_ones; apply N.mod_lt; discriminate.
Qed.

Lemma item_bytes_lt it : item_ok it -> Forall (fun b => b < 256) (item_bytes it).
Proof.
  intros (_ & Hop & _). unfold item_bytes. constructor; [vm_compute; reflexivity|].
  apply Forall_app. split; [apply seg_bytes_lt|]. apply Forall_app. split; [|apply le_bytes_lt].
  destruct (is_constb_cases _ Hop) as [E|[E|[E|[E|[E|[E|E]]]]]]; rewrite E; repeat constructor.
Qed.

Lemma items_bytes_lt l : Forall item_ok l -> Forall (fun b => b < 256) (items_bytes l).
Proof.
  induction 1 as [|it l Hit Hl IH]; cbn [items_bytes flat_map]; [constructor|]. apply Forall_app. split; [apply item_bytes_lt; exact Hit|exact IH].
Qed.

Lemma wp_popPkgEnd_single P s x (Q : unit -> pstate -> Prop) :
  p_pkgEndStack s = [x] -> Q tt (with_pkgEndStack s []) -> wp P popPkgEnd s Q.
Proof. intros E H. unfold wp, popPkgEnd. rewrite E. exact H. Qed.

(** the state after the first pass over the items *)
Record Post1 (tree : T) (g : ghost) (earlier : list (list N)) (h : N) (data : list N) (items : list item)
             (s' : pstate) (g' : ghost) (done : list (item * iobj)) : Prop := mkPost1 {
  p1_R : R (p_tree s') g';
  p1_info : info_valid (p_tree s');
  p1_rok : rok (p_r s');
  p1_items : map fst done = items;
  p1_kids0 : kids g' 0 = kids g 0 ++ pairs_kids done;
  p1_shape : Forall (fun x => item_shape1 (p_tree s') g' h (lenN earlier) (fst x) (snd x)) done;
  p1_offs : offs_ok (hdr_bytes (items_bytes items)) done;
  p1_frame : frame1 g tree g' (p_tree s');
  p1_live0 : glive g' 0;
  p1_tables : p_tables s' = earlier ++ [data];
  p1_handle : p_handle s' = h;
  p1_skip : p_allBlocks s' = false;
  p1_scope : p_scopeStack s' = [];
  p1_pk : p_pkgEndStack s' = [];
  p1_counters : p_resolvePasses s' = 0 /\ p_mergedScopes s' = 0 /\ p_relocatedObjects s' = 0
}.

Theorem names_pass1 tree g earlier h items fuel :
  let data := table_image (items_bytes items) in
  R tree g -> info_valid tree -> glive g 0 -> Forall item_ok items ->
  N.of_nat (length data) + 0x10000400 <= two32 ->
  N.of_nat (length (t_pool tree)) + 4 * N.of_nat (length data) + 4 <= InvalidIndex ->
  (2 * length items + 9 <= fuel)%nat ->
  exists s' g' done,
    first_pass fuel (init_state tree earlier h data) = Ok (ROk, s') /\ Post1 tree g earlier h data items s' g' done.
Proof.
  intros data HR Hi H0 Hok Hsmall Hcap Hf.
  assert (Hb : Forall (fun b => b < 256) data).
  { unfold data. rewrite table_image_split. apply Forall_app. split; [apply hdr_bytes_lt|apply items_bytes_lt; exact Hok]. }
  destruct (init_FI tree g earlier h data HR Hi H0 (conj Hb Hsmall) Hcap) as (HFI & Hroom & HJ & _).
  set (s0 := with_scopeStack (init_state tree earlier h data) [0]) in *.
  (* the reader of the initial state *)
  assert (Hlen : aml_sizeofSDTHeader <= N.of_nat (length data)).
  { unfold data. rewrite table_image_split, app_length, Nat2N.inj_add. fold (lenN (hdr_bytes (items_bytes items))). rewrite lenN_hdr. lia. }
  assert (Er0 : p_r s0 = mkReader data (N.of_nat (length data)) aml_sizeofSDTHeader (N.of_nat (length data))).
  { unfold s0, init_state. pcbn. rewrite init_reader_eq. unfold setPkgEnd. cbn [r_len fst]. rewrite N.ltb_irrefl. cbn [fst].
    unfold set_pkgEnd_raw. cbn [r_data r_len r_offset].
    destruct (N.of_nat (length data) <? aml_sizeofSDTHeader) eqn:E; [apply N.ltb_lt in E; lia|reflexivity]. }
  assert (Htok0 : at_token (p_r s0) (hdr_bytes (items_bytes items) ++ items_bytes (map fst (@nil (item * iobj)))) (items_bytes items) []).
  { cbn [map items_bytes flat_map]. rewrite app_nil_r. rewrite Er0. constructor; cbn [r_data r_offset r_pkgEnd].
    - unfold data. rewrite table_image_split, app_nil_r. reflexivity.
    - rewrite lenN_hdr. reflexivity.
    - unfold data. rewrite table_image_split. unfold lenN. rewrite app_length, Nat2N.inj_add. lia.
    - pose proof (fi_rok _ _ HFI) as (W & _). rewrite Er0 in W. exact W. }
  assert (HI0 : Inv1 (hdr_bytes (items_bytes items)) (kids g 0) g tree (N.of_nat (length (t_pool tree))) [] s0 g).
  { constructor; auto.
    - cbn [pairs_kids flat_map]. rewrite app_nil_r. reflexivity.
    - exact I.
    - split; [apply gext_refl|]. split; [auto|apply oldframe_refl].
    - unfold lp, s0, init_state. pcbn. change (lenN (@nil (item * iobj))) with 0. lia.
    - rewrite Er0. reflexivity. }
  assert (Hn : 6 * lenN items + aml_sizeofSDTHeader <= N.of_nat (length data)).
  { unfold data. rewrite table_image_split, app_length, Nat2N.inj_add. fold (lenN (hdr_bytes (items_bytes items))). rewrite lenN_hdr.
    assert (6 * lenN items <= N.of_nat (length (items_bytes items))); [|lia].
    clear. induction items as [|it l IH]; [cbn; lia|]. cbn [items_bytes flat_map]. rewrite app_length. unfold item_bytes at 1.
    cbn [length]. rewrite !app_length. change (length (seg_bytes (i_seg it))) with 4%nat. unfold lenN in *. cbn [length].
    assert (1 <= length (enc_op (i_op it)))%nat by (unfold enc_op; destruct (i_op it <=? 255); cbn; lia). unfold items_bytes in IH. lia. }
  destruct fuel as [|[|[|fuel]]]; try lia.
  assert (Hinner := inner_names _ _ _ _ _ items [] (S (S fuel)) s0 g HI0 Hok Htok0).
  assert (W : wp False (first_pass (S (S (S fuel)))) (init_state tree earlier h data)
                (fun a s' => a = ROk /\ exists g' done, Post1 tree g earlier h data items s' g' done)).
  { unfold first_pass. apply wp_bind. apply wp_scopeEnter.
    change (with_scopeStack (init_state tree earlier h data) (0 :: p_scopeStack (init_state tree earlier h data))) with s0.
    cbn [parseObjectList]. apply wp_bind, wp_get.
    assert (Est0 : p_scopeStack s0 = [0]) by reflexivity. rewrite Est0.
    apply wp_bind. eapply wp_weaken; [apply Hinner|intros []|].
    { change (lenN (@nil (item * iobj))) with 0. unfold aml_sizeofSDTHeader in *. clear -Hn Hcap; lia. } { clear -Hf; lia. }
    intros ok s1 (-> & g1 & done & HI1 & Hmap & SR1 & Htok1).
    cbn [app] in HI1, Htok1.
    destruct HI1 as [H1 Hst1 Hl01 Hk01 Hit1 Hoffs1 Hfr1 Hlp1 Hend1].
    destruct SR1 as (S1 & S2 & S3 & S4 & S5 & S6 & S7 & S8 & S9).
    cbn [negb]. apply wp_bind, wp_get. apply wp_bind, wp_get. rewrite S2, Hst1.
    assert (Epk0 : p_pkgEndStack s0 = [r_len (init_reader data aml_sizeofSDTHeader)]) by reflexivity.
    rewrite Epk0. cbn [length Nat.eqb].
    apply wp_bind. eapply wp_scopeExit; [exact Hst1|].
    apply wp_bind. eapply wp_popPkgEnd_single; [cbn [p_pkgEndStack with_scopeStack]; rewrite S2; exact Epk0|].
    apply wp_bind, wp_get. cbn [p_scopeStack with_pkgEndStack with_scopeStack]. apply wp_ret.
    split; [reflexivity|]. exists g1, done.
    constructor; pcbn; auto.
    + apply (fi_R _ _ H1).
    + apply (fi_info _ _ H1).
    + apply (fi_rok _ _ H1).
    + rewrite S8 in Hit1. unfold cur_tbl in Hit1. rewrite S9 in Hit1.
      replace (N.of_nat (length (p_tables s0)) - 1) with (lenN earlier) in Hit1; [exact Hit1|].
      unfold s0, init_state. pcbn. unfold lenN. rewrite app_length. cbn [length]. clear; lia. }
  destruct (wp_run _ _ _ W) as (a & s' & E & -> & g' & done & HP). exists s', g', done. split; assumption.
Qed.
