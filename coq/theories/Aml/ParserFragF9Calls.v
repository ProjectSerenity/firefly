(** C11 (fragment F9): resolveMethodCalls on the tree that connectNamedObjArgs left - the pass where a statement gets its
    operands (connectNonNamedObjArg: the next [argCount] siblings become the arguments of the operator).  Exact
    description: [lay2] -> [lay5]; everything that is not a statement is left alone.
    [RSp n cf cl ok T1 T2] says what the loop of the pass does on a run of children of an object; runs compose
    ([rsp_app], the later run first, as in ParserFragF9Conn.v) and every item is proved for its own run ([RSpec1]). *)
From Coq Require Import NArith ZArith Arith List Bool Lia.
From Coq Require Import ZifyBool ZifyN ZifyNat.
From FF Require Import Lib.Word Gen.Consts_device_acpi_aml Gen.Consts_aml_tree Aml.Stream Aml.Lex Aml.LexProofs
  Aml.Tree Aml.TreeSpec Aml.TreeProofs Aml.TreeProofsOps Aml.TreeProofsFind Aml.Parser Aml.Grammar Aml.LexRoundtrip
  Aml.ParserTotalTree Aml.ParserTotalBase
  Aml.ParserFragBase Aml.ParserFragFirst Aml.ParserFragF0 Aml.ParserFragF0Shape Aml.ParserFragConn Aml.ParserFragF0Conn Aml.ParserFragWalk
  Aml.ParserFragF0Top Aml.ParserFragRose Aml.ParserFragDev Aml.ParserFragArgs Aml.ParserFragF9 Aml.ParserFragF9First Aml.ParserFragF9Conn Aml.ParserFragF9Top.
Import ListNotations.
Local Open Scope N_scope.

(** ---- moving a run of siblings below the target, for either value of useParent ---- *)
Lemma attach_go_up : forall cs up f obj tg l1 l2 ao atg s g pl (Q : pres -> pstate -> Prop),
  Rep (p_tree s) g pl -> kids g obj = l1 ++ tg :: cs ++ l2 ->
  (forall c, In c cs -> ~ desc g c tg /\ exists ac, pget pl c = Some ac /\ y_op ac <> opFreed) ->
  pget pl obj = Some ao -> y_op ao <> opFreed -> pget pl tg = Some atg -> y_op atg <> opFreed ->
  (forall t' g', Rep t' g' pl -> length (g_kids g') = length (g_kids g) ->
     (forall y, kids g' y = if y =? tg then kids g tg ++ cs else if y =? obj then l1 ++ tg :: l2 else kids g y) ->
     Q ROk (with_tree s t')) ->
  wp False (attachSiblings_go (length cs + S f) obj tg (hd InvalidIndex (cs ++ l2)) (N.of_nat (length cs)) up) s Q.
Proof. exact attach_go_any. Qed.

(** ---- one step of the loop over a child whose own turn is a no-op (after the walk of its subtree) ---- *)
Lemma calls_step g pl h f p l1 c l2 a s (Q : pres -> pstate -> Prop) :
  Rep (p_tree s) g pl -> kids g p = l1 ++ c :: l2 -> pget pl c = Some a -> y_op a <> opFreed ->
  wp False (resolveMethodCalls f c) s (fun r s1 => r = ROk /\ exists g1,
     Rep (p_tree s1) g1 pl /\ p_handle s1 = h /\ kids g1 p = l1 ++ c :: l2 /\ calls_ok g1 h c a /\
     wp False (resolveCalls_loop f p (last l1 InvalidIndex)) s1 Q) ->
  wp False (resolveCalls_loop (S f) p c) s Q.
Proof.
  intros H Hk Hac Hlc K. rewrite resolveCalls_loop_S. rewrite (rep_not_Inv _ _ _ _ _ H Hac).
  apply wp_bind. eapply wp_objectAt_rep; [exact H|exact Hac|exact Hlc|].
  apply wp_bind. eapply (wp_rdf_sib False p l1 c l2); [exact H|exact Hk|]. intros o' Hidx _ _ _ _. rewrite Hidx.
  apply wp_bind. eapply wp_conseq; [exact K|]. intros r0 s1 (-> & g1 & H1 & Hh & Hk1 & (Hc1 & Hc2) & K1).
  change (negb (pres_eqb ROk ROk)) with false. cbv iota zeta.
  apply wp_bind. eapply wp_rdo_rep; [exact H1|exact Hac|exact Hlc|]. intros ao Hpay _ _ _.
  apply wp_bind, wp_get. rewrite (pay_op _ _ Hpay), (pay_th _ _ Hpay), Hh, Hc1.
  apply wp_bind. eapply (nonnamed_arg g1 pl h); [exact H1|exact Hh|exact Hac|exact Hlc|exact Hc2|].
  change (pres_eqb ROk RFailed) with false. cbv iota.
  apply wp_bind. eapply (wp_rdf_sib False p l1 c l2); [exact H1|exact Hk1|]. intros o _ _ Hprev _ _. rewrite Hprev. exact K1.
Qed.

Lemma calls_leaf_walk g pl f d a s : Rep (p_tree s) g pl -> pget pl d = Some a -> y_op a <> opFreed -> kids g d = [] ->
  wp False (resolveMethodCalls (S (S f)) d) s (fun r s' => r = ROk /\ s' = s).
Proof.
  intros H Ha Hl Hk. rewrite resolveMethodCalls_S.
  apply wp_bind. eapply wp_objectAt_rep; [exact H|exact Ha|exact Hl|].
  apply wp_bind. eapply wp_rdf_rep; [exact H|exact Ha|exact Hl|]. intros o _ _ _ Hlast. rewrite Hlast, Hk. cbn [last].
  rewrite resolveCalls_loop_S, N.eqb_refl. apply wp_ret. auto.
Qed.

(** a run of childless children is stepped over *)
Lemma calls_leaves_mid h : forall D1 f obj L D2 s g pl (Q : pres -> pstate -> Prop),
  Rep (p_tree s) g pl -> p_handle s = h -> kids g obj = L ++ D1 ++ D2 ->
  (forall d, In d D1 -> kids g d = [] /\ exists a, pget pl d = Some a /\ y_op a <> opFreed /\ calls_ok g h d a) ->
  wp False (resolveCalls_loop (S (S f)) obj (last L InvalidIndex)) s Q ->
  wp False (resolveCalls_loop (length D1 + S (S f)) obj (last (L ++ D1) InvalidIndex)) s Q.
Proof.
  induction D1 as [|x D1 IH] using rev_ind; intros f obj L D2 s g pl Q H Hh Hk Hall K.
  - cbn [length Nat.add]. rewrite app_nil_r. exact K.
  - rewrite app_length. cbn [length]. replace (length D1 + 1 + S (S f))%nat with (S (S (S (length D1 + f))))%nat by lia.
    rewrite app_assoc, last_last. destruct (Hall x) as (Hkx & a & Ha & Hl & Hc); [apply in_or_app; right; left; reflexivity|].
    assert (Hk' : kids g obj = (L ++ D1) ++ x :: D2) by (rewrite Hk, <- !app_assoc; reflexivity).
    eapply (calls_step g pl h _ obj (L ++ D1) x D2 a s); [exact H|exact Hk'|exact Ha|exact Hl|].
    eapply wp_conseq; [apply (calls_leaf_walk g pl _ x a s H Ha Hl Hkx)|]. intros r s' (-> & ->).
    split; [reflexivity|]. exists g. split; [exact H|]. split; [exact Hh|]. split; [exact Hk'|]. split; [exact Hc|].
    replace (S (S (length D1 + f)))%nat with (length D1 + S (S f))%nat by lia.
    eapply (IH f obj L (x :: D2)); [exact H|exact Hh|rewrite Hk, <- !app_assoc; reflexivity| |exact K].
    intros d Hd. apply Hall. apply in_or_app. left. exact Hd.
Qed.

Lemma calls_leaves h D1 f obj D2 s g pl (Q : pres -> pstate -> Prop) :
  Rep (p_tree s) g pl -> p_handle s = h -> kids g obj = D1 ++ D2 ->
  (forall d, In d D1 -> kids g d = [] /\ exists a, pget pl d = Some a /\ y_op a <> opFreed /\ calls_ok g h d a) ->
  wp False (resolveCalls_loop (S (S f)) obj InvalidIndex) s Q ->
  wp False (resolveCalls_loop (length D1 + S (S f)) obj (last D1 InvalidIndex)) s Q.
Proof. intros H Hh Hk Hall K. apply (calls_leaves_mid h D1 f obj [] D2 s g pl Q H Hh Hk Hall K). Qed.

Lemma loop_fuel_eq F F' p a s (Q : pres -> pstate -> Prop) :
  F = F' -> wp False (resolveCalls_loop F' p a) s Q -> wp False (resolveCalls_loop F p a) s Q.
Proof. intros ->. auto. Qed.

(** ---- the walk over a subtree all of whose objects are left alone ---- *)
Section CallsS.
Variable g : ghost.
Variable pl : list pay.
Variable h : N.
Variable SS : N -> Prop.
Hypothesis Sclosed : forall y c, SS y -> In c (kids g y) -> SS c.
Hypothesis Hall : forall y a, SS y -> pget pl y = Some a -> y_op a <> opFreed -> calls_ok g h y a.

Definition KWs (f : nat) : Prop := forall x a s, Rep (p_tree s) g pl -> p_handle s = h -> SS x ->
  pget pl x = Some a -> y_op a <> opFreed -> fwalkb g f x ->
  wp False (resolveMethodCalls f x) s (fun r s' => r = ROk /\ s' = s).

Definition KLs (f : nat) : Prop := forall p lr l2 s, Rep (p_tree s) g pl -> p_handle s = h ->
  kids g p = rev lr ++ l2 -> (forall c, In c lr -> SS c) -> floopb g f lr ->
  wp False (resolveCalls_loop f p (hd InvalidIndex lr)) s (fun r s' => r = ROk /\ s' = s).

Lemma callsS_walk f : KLs f -> KWs (S f).
Proof.
  intros IHl x a s H Hh HSx Ha Hl Hf. rewrite resolveMethodCalls_S.
  apply wp_bind. eapply wp_objectAt_rep; [exact H|exact Ha|exact Hl|].
  apply wp_bind. eapply wp_rdf_rep; [exact H|exact Ha|exact Hl|]. intros o _ _ _ Hlast. rewrite Hlast.
  cbn [fwalkb] in Hf. rewrite <- (rev_involutive (kids g x)) at 1. rewrite last_rev_hd.
  apply (IHl x (rev (kids g x)) [] s H Hh); [rewrite rev_involutive, app_nil_r; reflexivity| |exact Hf].
  intros c Hc. apply in_rev in Hc. eapply Sclosed; eauto.
Qed.

Lemma callsS_loop f : KWs f -> KLs f -> KLs (S f).
Proof.
  intros IHw IHl p lr l2 s H Hh Hk HS Hf.
  destruct lr as [|c r]; cbn [hd]; [rewrite resolveCalls_loop_S, N.eqb_refl; apply wp_ret; auto|].
  cbn [rev] in Hk. rewrite <- app_assoc in Hk. cbn [app] in Hk.
  assert (Hin : In c (kids g p)) by (rewrite Hk; apply in_or_app; right; left; reflexivity).
  destruct (rep_kid_pay _ _ _ _ _ H Hin) as (ac & Hac & Hlc).
  cbn [floopb] in Hf. destruct Hf as [Hfc Hfr].
  eapply (calls_step g pl h f p (rev r) c l2 ac s); [exact H|exact Hk|exact Hac|exact Hlc|].
  eapply wp_conseq; [apply (IHw c ac s H Hh (HS c (or_introl eq_refl)) Hac Hlc Hfc)|].
  intros r0 s' (-> & ->). split; [reflexivity|]. exists g. split; [exact H|]. split; [exact Hh|]. split; [exact Hk|].
  split; [apply Hall; [apply HS; left; reflexivity|exact Hac|exact Hlc]|].
  rewrite last_rev_hd. apply (IHl p r (c :: l2) s H Hh); [exact Hk| |exact Hfr]. intros c' Hc'. apply HS. right. exact Hc'.
Qed.

Lemma callsS_all : forall f, KWs f /\ KLs f.
Proof.
  induction f as [|f (IHw & IHl)].
  - split; intro; intros; cbn in *; contradiction.
  - split; [apply callsS_walk; exact IHl|apply callsS_loop; assumption].
Qed.
End CallsS.

Lemma lay5_nodes h tbl : forall l b off x, In x (rnodesl (lay5 h tbl b off l)) -> b <= x < b + N.of_nat (iszs l).
Proof.
  induction l as [|d rest IH|bk k seg fa body rest IHb IH|lk seg fa ta rest IH|seg k n elems rest IH|sk ta rest IH] using items_ind; intros b off x Hx; [contradiction| | | | |].
  5:{ rewrite lay5_cons, rnodesl_app in Hx. rewrite iszs_cons, isz_stmt. apply in_app_or in Hx. destruct Hx as [Hx|Hx].
      - cbn [lay5_item] in Hx. unfold rnodesl in Hx. cbn [flat_map] in Hx. rewrite app_nil_r, rnodes_eq in Hx.
        destruct Hx as [<-|Hx]; [lia|]. apply leaf_row_nodes in Hx. rewrite len_cst_pays in Hx. lia.
      - apply IH in Hx. rewrite isz_stmt in Hx. lia. }
  - rewrite lay5_cons, rnodesl_app in Hx. rewrite iszs_cons. apply in_app_or in Hx. destruct Hx as [Hx|Hx].
    + cbn [lay5_item rnodesl flat_map rnodes app In] in Hx. cbn [isz]. lia.
    + apply IH in Hx. cbn [isz] in *. lia.
  - rewrite lay5_cons, rnodesl_app in Hx. rewrite iszs_cons, isz_blk. apply in_app_or in Hx. destruct Hx as [Hx|Hx].
    + rewrite lay5_blk in Hx. unfold rnodesl in Hx. cbn [flat_map] in Hx. rewrite app_nil_r, rnodes_eq in Hx.
      destruct Hx as [<-|Hx]; [lia|]. rewrite rnodesl_app in Hx. apply in_app_or in Hx. destruct Hx as [Hx|Hx].
      * apply leaf_row_nodes in Hx. rewrite len_hd_pays in Hx. lia.
      * unfold rnodesl in Hx. cbn [flat_map] in Hx. rewrite app_nil_r, rnodes_eq in Hx. unfold nfx in Hx.
        destruct Hx as [<-|Hx]; [lia|]. apply IHb in Hx. lia.
    + apply IH in Hx. rewrite isz_blk in Hx. lia.
  - rewrite lay5_cons, rnodesl_app in Hx. rewrite iszs_cons, isz_leaf. apply in_app_or in Hx. destruct Hx as [Hx|Hx].
    + cbn [lay5_item] in Hx. unfold rnodesl in Hx. cbn [flat_map] in Hx. rewrite app_nil_r, rnodes_eq in Hx.
      destruct Hx as [<-|Hx]; [lia|]. apply leaf_row_nodes in Hx. rewrite app_length, len_lhd_pays, len_cst_pays in Hx. lia.
    + apply IH in Hx. rewrite isz_leaf in Hx. lia.
  - rewrite lay5_cons, rnodesl_app in Hx. rewrite iszs_cons, isz_pkg. apply in_app_or in Hx. destruct Hx as [Hx|Hx].
    + cbn [lay5_item] in Hx. unfold rnodesl in Hx. cbn [flat_map] in Hx. rewrite app_nil_r, rnodes_eq in Hx.
      destruct Hx as [<-|Hx]; [lia|]. unfold rnodesl in Hx. cbn [flat_map] in Hx. rewrite app_nil_r in Hx. apply in_app_or in Hx.
      destruct Hx as [Hx|Hx]; [rewrite rnodes_eq in Hx; cbn [rnodesl flat_map In] in Hx; lia|apply pkg_tree_nodes in Hx; lia].
    + apply IH in Hx. rewrite isz_pkg in Hx. lia.
Qed.

(** ---- the exact pass over the items ---- *)
Fixpoint rlen (l : list item) : nat :=
  match l with [] => O | IStmt _ ta :: t => S (length ta + rlen t) | _ :: t => S (rlen t) end.
Fixpoint rfuel_item (it : item) : nat :=
  match it with
  | IBlk bk _ _ fa body => (8 + length (bfx bk fa) + fold_right (fun x n => (rfuel_item x + n)%nat) O body)%nat
  | IStmt _ ta => (2 * length ta + 2)%nat
  | _ => (3 * isz it + 2)%nat
  end.
Definition rfuel (l : list item) : nat := fold_right (fun x n => (rfuel_item x + n)%nat) O l.
Lemma rfuel_cons x t : rfuel (x :: t) = (rfuel_item x + rfuel t)%nat. Proof. reflexivity. Qed.
Lemma rfuel_blk bk k seg fa body : rfuel_item (IBlk bk k seg fa body) = (8 + length (bfx bk fa) + rfuel body)%nat. Proof. reflexivity. Qed.
Definition inertb (it : item) : bool := match it with IName _ | ILeaf _ _ _ _ | IPkg _ _ _ _ => true | _ => false end.
Lemma rfuel_inert it : inertb it = true -> rfuel_item it = (3 * isz it + 2)%nat.
Proof. destruct it; try discriminate; reflexivity. Qed.
Lemma rlen_inert it rest : inertb it = true -> rlen (it :: rest) = S (rlen rest).
Proof. destruct it; try discriminate; reflexivity. Qed.
Lemma rlen_le_rfuel l : (rlen l <= rfuel l)%nat.
Proof.
  induction l as [|[d|bk k seg fa body|lk seg fa ta|seg k n elems|sk ta] t IH]; [cbn; lia| | | | |]; rewrite rfuel_cons; cbn [rlen];
    [cbn [rfuel_item]|rewrite rfuel_blk|cbn [rfuel_item]|cbn [rfuel_item]|cbn [rfuel_item]]; lia.
Qed.

Lemma sk_w8 sk : w8 (argCount (sk_af sk) + 0x100 - termArgIndex (sk_af sk)) = N.of_nat (sk_n sk).
Proof. destruct sk; reflexivity. Qed.
Lemma sk_live h sk off : y_op (st_pay h sk off) <> opFreed.
Proof. destruct sk; discriminate. Qed.
Lemma sk_notcall h sk off : (y_op (st_pay h sk off) =? aml_pOpIntNamePathOrMethodCall) = false.
Proof. destruct sk; reflexivity. Qed.

Lemma leaf_row_Forall_nth (P : rose -> Prop) : forall ps b, Forall P (leaf_row b ps) ->
  forall i p, nth_error ps i = Some p -> P (RN (b + N.of_nat i) p []).
Proof.
  induction ps as [|q r IH]; intros b HF i p Hi; [destruct i; discriminate|]. cbn [leaf_row] in HF.
  destruct i as [|i].
  - inversion Hi; subst q. rewrite N.add_0_r. exact (Forall_inv HF).
  - replace (b + N.of_nat (S i)) with (b + 1 + N.of_nat i) by lia. apply (IH (b + 1) (Forall_inv_tail HF) i p Hi).
Qed.

Section CallSpec.
Variable h tbl : N.

(** What the loop of resolveMethodCalls does on a run of children of [x] ([n] objects, [cl] of them children of [x],
    trees [T1] before and [T2] after; the payloads do not change).  [R]: fuel left for the continuation; a statement
    without operands needs 2 units beyond its [rfuel_item] ([rspec_stmt]). *)
Definition RSp (n cf cl : nat) (ok : bool) (T1 T2 : N -> N -> list rose) : Prop :=
  forall x pre post b off s g pl f ax R (Q : pres -> pstate -> Prop),
  Rep (p_tree s) g pl ->
  kids g x = pre ++ map ridx (T1 b off) ++ post ->
  Forall (Desc g pl) (T1 b off) ->
  pget pl x = Some ax -> y_op ax <> opFreed -> (x < b \/ b + N.of_nat n <= x) ->
  p_handle s = h -> ok = true ->
  (2 <= R)%nat -> (cf + R <= f)%nat ->
  (forall t' g', Rep t' g' pl -> Post2 g pl g' pl x b n pre post (T2 b off) ->
     wp False (resolveCalls_loop (f - cl) x (last pre InvalidIndex)) (with_tree s t') Q) ->
  wp False (resolveCalls_loop f x (last (pre ++ map ridx (T1 b off)) InvalidIndex)) s Q.

Lemma rsp_app n1 cf1 cl1 ok1 A1 A2 n2 cf2 cl2 ok2 B1 B2 (d1 : N -> N) :
  (forall b off y, In y (rnodesl (A1 b off)) -> b <= y < b + N.of_nat n1) ->
  (forall b off y, In y (rnodesl (B2 b off)) -> b <= y < b + N.of_nat n2) ->
  (cl2 <= cf2)%nat ->
  RSp n1 cf1 cl1 ok1 A1 A2 -> RSp n2 cf2 cl2 ok2 B1 B2 ->
  RSp (n1 + n2) (cf1 + cf2) (cl1 + cl2) (ok1 && ok2)
      (fun b off => A1 b off ++ B1 (b + N.of_nat n1) (d1 off)) (fun b off => A2 b off ++ B2 (b + N.of_nat n1) (d1 off)).
Proof.
  intros NA NB Hcl SA SB x pre post b off s g pl f ax R Q H Hk HD Hx Hlx Hrange Hh Hok HR Hf K.
  apply andb_prop in Hok. destruct Hok as [Hok1 Hok2].
  rewrite map_app in Hk |- *. apply Forall_app in HD. destruct HD as [HDA HDB].
  set (B' := b + N.of_nat n1) in *.
  rewrite app_assoc.
  eapply (SB x (pre ++ map ridx (A1 b off)) post B' (d1 off) s g pl f ax (R + cf1)%nat Q);
    [exact H|rewrite Hk, <- !app_assoc; reflexivity|exact HDB|exact Hx|exact Hlx|unfold B'; lia|exact Hh|exact Hok2|lia|lia|].
  intros t1 g1 H1 [Q1 Q2 Q3 _].
  assert (HDA1 : Forall (Desc g1 pl) (A1 b off)).
  { apply (Desc_frame_l g pl); [exact HDA|]. intros y Hy. apply NA in Hy. split; [apply Q3; unfold B'; lia|reflexivity]. }
  eapply (SA x pre (map ridx (B2 B' (d1 off)) ++ post) b off (with_tree s t1) g1 pl (f - cl2)%nat ax R Q);
    [exact H1|rewrite Q1, <- app_assoc; reflexivity|exact HDA1|exact Hx|exact Hlx|lia|exact Hh|exact Hok1|exact HR|lia|].
  intros t2 g2 H2 [U1 U2 U3 _].
  replace (f - cl2 - cl1)%nat with (f - (cl1 + cl2))%nat by lia.
  apply (K t2 g2 H2). constructor.
  - rewrite U1, map_app, <- !app_assoc. reflexivity.
  - apply Forall_app. split; [exact U2|]. apply (Desc_frame_l g1 pl); [exact Q2|].
    intros y Hy. apply NB in Hy. unfold B' in Hy. split; [apply U3; lia|reflexivity].
  - intros y Hy Hyx. rewrite U3 by lia. apply Q3; [unfold B'; lia|exact Hyx].
  - reflexivity.
Qed.

Definition RSpec (its : list item) : Prop :=
  RSp (iszs its) (rfuel its) (rlen its) (forallb item_okb its) (fun b off => lay2 h tbl b off its) (fun b off => lay5 h tbl b off its).
Definition RSpec1 (x : item) : Prop :=
  RSp (isz x) (rfuel_item x) (rlen [x]) (item_okb x) (fun b off => lay2_item h tbl b off x) (fun b off => lay5_item h tbl b off x).

Lemma rspec_cons x rest : RSpec1 x -> RSpec rest -> RSpec (x :: rest).
Proof.
  intros A B. unfold RSpec. replace (rlen (x :: rest)) with (rlen [x] + rlen rest)%nat by (destruct x; cbn [rlen]; lia).
  refine (rsp_app _ _ _ _ _ _ _ _ _ _ _ _ (fun off => off + lenN (enc_item x)) _ _ (rlen_le_rfuel rest) A B).
  - intros b off y Hy. pose proof (lay2_nodes h tbl [x] b off y) as E. cbn [lay2 iszs fold_right] in E. rewrite app_nil_r in E. specialize (E Hy). lia.
  - intros b off y. apply lay5_nodes.
Qed.

Lemma rspec_nil : RSpec [].
Proof.
  intros x pre post b off s g pl f ax R Q H Hk HD Hx Hlx Hrange Hh Hok HR Hf K.
  cbn [lay2 map rlen] in *. rewrite app_nil_r. rewrite Nat.sub_0_r in K.
  specialize (K (p_tree s) g H). assert (E : with_tree s (p_tree s) = s) by (destruct s; reflexivity). rewrite E in K.
  apply K. constructor; auto.
Qed.

Lemma inert_single b off it : inertb it = true ->
  exists r, lay2_item h tbl b off it = [r] /\ lay5_item h tbl b off it = [r] /\ ridx r = b.
Proof. destruct it; try discriminate; intros _; eexists; (split; [reflexivity|split; reflexivity]). Qed.

Lemma rspec_inert it : inertb it = true -> RSpec1 it.
Proof.
  intros Hin x pre post b off s g pl f ax R Q H Hk HD Hx Hlx Hrange Hh Hok HR Hf K.
  cbv beta in Hk, HD |- *. rename Hok into Hit.
  destruct (inert_single b off it Hin) as (r & E2 & E5 & Hri).
  assert (Hrs : rsize r = isz it).
  { pose proof (lay2_rsizes h tbl [it] b off) as E. cbn [lay2] in E. rewrite app_nil_r, E2 in E. cbn [rsizes fold_right iszs] in E. lia. }
  assert (Hrn : forall y, In y (rnodes r) -> b <= y < b + N.of_nat (isz it)).
  { intros y Hy. assert (Hy' : In y (rnodesl (lay2 h tbl b off [it]))) by (cbn [lay2]; rewrite app_nil_r, E2; cbn [rnodesl flat_map]; rewrite app_nil_r; exact Hy).
    apply lay2_nodes in Hy'. cbn [iszs fold_right] in Hy'. lia. }
  assert (Hok5 : rallr f9_ok5E r).
  { pose proof (lay5_ok5 h tbl [it] b off) as E. cbn [lay5 forallb] in E. rewrite app_nil_r, E5, Hit in E. exact (Forall_inv (E eq_refl)). }
  rewrite E2 in Hk, HD |- *. rewrite (rfuel_inert it Hin) in Hf.
  cbn [map app] in Hk |- *. rewrite Hri in Hk |- *.
  pose proof (Forall_inv HD) as Dr.
  destruct r as [i a ks]. cbn [ridx] in Hri. subst i.
  destruct (Desc_inv _ _ _ _ _ Dr) as (Prb & _ & _).
  assert (Hk1 : kids g x = pre ++ b :: post) by exact Hk.
  assert (Hinb : In b (kids g x)) by (rewrite Hk1; apply in_or_app; right; left; reflexivity).
  destruct (rep_kid_pay _ _ _ _ _ H Hinb) as (a' & Pa' & Hlb). assert (a' = a) by congruence. subst a'.
  assert (Hcond : forall y ay, In y (rnodes (RN b a ks)) -> pget pl y = Some ay -> y_op ay <> opFreed -> calls_ok g h y ay).
  { intros y ay Hy Py Hly. apply (f5_conds (p_tree s) g pl (RN b a ks) h H Dr Hok5 y ay Hy Py Hly). }
  rewrite last_last.
  assert (EF : exists f1, (f = S f1)%nat /\ (3 * isz it + 1 <= f1)%nat) by (exists (f - 1)%nat; lia).
  destruct EF as (f1 & -> & Hf1).
  eapply (calls_step g pl h f1 x pre b post a s); [exact H|exact Hk1|exact Prb|exact Hlb|].
  eapply wp_conseq.
  { apply (proj1 (callsS_all g pl h (fun y => In y (rnodes (RN b a ks)))
             (fun y c Hy Hc => Desc_kids_in g pl _ Dr y c Hy Hc) Hcond f1) b a s H Hh).
    - rewrite rnodes_eq. left. reflexivity.
    - exact Prb.
    - exact Hlb.
    - apply (fwalkb_size g pl (RN b a ks) Dr). lia. }
  intros r0 s' (-> & ->). split; [reflexivity|]. exists g. split; [exact H|]. split; [exact Hh|]. split; [exact Hk1|].
  split; [apply Hcond; [rewrite rnodes_eq; left; reflexivity|exact Prb|exact Hlb]|].
  replace f1 with (S f1 - rlen [it])%nat by (rewrite (rlen_inert it [] Hin); cbn [rlen]; lia).
  specialize (K (p_tree s) g H). assert (E : with_tree s (p_tree s) = s) by (destruct s; reflexivity). rewrite E in K. apply K.
  rewrite E5. constructor.
  - exact Hk.
  - constructor; [exact Dr|constructor].
  - reflexivity.
  - reflexivity.
Qed.

(** a statement: the operands that follow become its arguments *)
Lemma rspec_stmt sk ta : RSpec1 (IStmt sk ta).
Proof.
  intros x pre post b off s g pl f ax R Q H Hk HD Hx Hlx Hrange Hh Hok HR Hf K.
  cbv beta in Hk, HD |- *. pose proof Hok as Hd_ok. cbn [item_okb] in Hd_ok.
  apply andb_prop in Hd_ok. destruct Hd_ok as [Hn Hta]. apply Nat.eqb_eq in Hn.
  rewrite isz_stmt in Hrange. cbn [rfuel_item] in Hf.
  set (nt := length ta) in *.
  cbn [lay2_item] in Hk, HD |- *.
  set (cs := cst_pays h tbl (off + slo sk) ta) in *.
  assert (Hlc : length cs = nt) by apply len_cst_pays.
  cbn [map ridx] in Hk |- *. rewrite leaf_row_idx, Hlc in Hk |- *.
  set (ops := seqN (b + 1) nt) in *.
  pose proof (Forall_inv HD) as DS. pose proof (Forall_inv_tail HD) as HDrow. clear HD.
  destruct (Desc_inv _ _ _ _ _ DS) as (PS & KS & _). cbn [map] in KS.
  pose proof (leaf_row_desc_inv _ _ _ _ HDrow) as Hrow.
  assert (Hk1 : kids g x = pre ++ b :: ops ++ post) by exact Hk.
  assert (Hops : forall d, In d ops -> exists i p, d = b + 1 + N.of_nat i /\ nth_error cs i = Some p /\ pget pl d = Some p /\ kids g d = []).
  { intros d Hd. apply seqN_in in Hd.
    assert (Ei : exists i, d = b + 1 + N.of_nat i /\ (i < nt)%nat) by (exists (N.to_nat (d - (b + 1))); lia). destruct Ei as (i & -> & Hi).
    destruct (nth_error cs i) as [p|] eqn:Ep; [|apply nth_error_None in Ep; lia].
    destruct (Hrow i p Ep) as (A & B0). exists i, p. split; [reflexivity|]. split; [exact Ep|]. split; [exact A|]. exact B0. }
  assert (Hrowok : Forall (rallr f9_ok5E) (leaf_row (b + 1) cs)).
  { apply (cst_row_okP f9_ok5E h tbl); [|exact Hta]. intros r Hr. exists h, tbl. left. exact Hr. }
  assert (Hopc : forall d, In d ops -> kids g d = [] /\ exists a, pget pl d = Some a /\ y_op a <> opFreed /\ calls_ok g h d a).
  { intros d Hd. destruct (Hops d Hd) as (i & p & -> & Ep & Pp & Kp). split; [exact Kp|]. exists p. split; [exact Pp|].
    destruct (cst_rows h tbl ta (off + slo sk) Hta p (nth_error_In _ _ Ep)) as (rw & _ & Hlp). split; [exact Hlp|].
    pose proof (leaf_row_Forall_nth _ cs (b + 1) Hrowok i p Ep) as Ok1.
    assert (D1 : Desc g pl (RN (b + 1 + N.of_nat i) p [])) by (constructor; [exact Pp|exact Kp|constructor]).
    apply (f5_conds (p_tree s) g pl _ h H D1 Ok1 _ p); [rewrite rnodes_eq; left; reflexivity|exact Pp|exact Hlp]. }
  destruct (Nat.eq_dec nt 0) as [Ent|Ent].
  - (* no operand: nothing to do *)
    assert (Eops : ops = []) by (unfold ops; rewrite Ent; reflexivity). rewrite Eops in *. cbn [app] in Hk1 |- *.
    rewrite last_last.
    assert (EF : exists f1, (f = S (S (S f1)))%nat) by (exists (f - 3)%nat; lia).
    destruct EF as (f1 & ->).
    assert (D1 : Desc g pl (RN b (st_pay h sk off) [])) by (constructor; [exact PS|exact KS|constructor]).
    assert (Ok1 : rallr f9_ok5E (RN b (st_pay h sk off) [])).
    { constructor; [|constructor]. exists h, tbl. right. exists sk, off. split; [reflexivity|]. cbn [rkids length]. rewrite <- Hn. symmetry. exact Ent. }
    eapply (calls_step g pl h _ x pre b post (st_pay h sk off) s); [exact H|exact Hk1|exact PS|apply sk_live|].
    eapply wp_conseq; [apply (calls_leaf_walk g pl f1 b _ s H PS (sk_live h sk off) KS)|].
    intros r0 s' (-> & ->). split; [reflexivity|]. exists g. split; [exact H|]. split; [exact Hh|]. split; [exact Hk1|].
    split; [apply (f5_conds (p_tree s) g pl _ h H D1 Ok1 b _); [rewrite rnodes_eq; left; reflexivity|exact PS|apply sk_live]|].
    replace (S (S f1)) with (S (S (S f1)) - rlen [IStmt sk ta])%nat by (cbn [rlen]; fold nt; rewrite Ent; lia).
    specialize (K (p_tree s) g H). assert (E : with_tree s (p_tree s) = s) by (destruct s; reflexivity). rewrite E in K. apply K.
    cbn [lay5_item]. fold cs.
    assert (Ecs : cs = []) by (apply length_zero_iff_nil; rewrite Hlc; exact Ent). rewrite Ecs. cbn [leaf_row]. constructor.
    + exact Hk1.
    + constructor; [exact D1|constructor].
    + reflexivity.
    + reflexivity.
  - (* the operands are stepped over, then attached *)
    assert (Hnt : (1 <= nt)%nat) by lia.
    assert (EF : exists f0, (f = nt + S (S (nt + f0)))%nat) by (exists (f - 2 * nt - 2)%nat; lia).
    destruct EF as (f0 & ->).
    replace (pre ++ b :: ops) with ((pre ++ [b]) ++ ops) by (rewrite <- app_assoc; reflexivity).
    replace nt with (length ops) at 1 by (unfold ops; apply seqN_len).
    eapply (calls_leaves_mid h ops (nt + f0) x (pre ++ [b]) post s g pl Q);
      [exact H|exact Hh|rewrite Hk1, <- !app_assoc; reflexivity|exact Hopc|].
    rewrite last_last.
    (* the operator *)
    rewrite resolveCalls_loop_S. rewrite (rep_not_Inv _ _ _ _ _ H PS).
    apply wp_bind. eapply wp_objectAt_rep; [exact H|exact PS|apply sk_live|].
    apply wp_bind. eapply (wp_rdf_sib False x pre b (ops ++ post)); [exact H|exact Hk1|]. intros o' Hidx _ _ _ _. rewrite Hidx.
    apply wp_bind. eapply wp_conseq.
    { assert (E2 : exists f2, (nt + f0 = S f2)%nat) by (exists (nt + f0 - 1)%nat; lia). destruct E2 as (f2 & E2).
      replace (S (nt + f0)) with (S (S f2)) by lia. apply (calls_leaf_walk g pl f2 b _ s H PS (sk_live h sk off) KS). }
    intros r0 s' (-> & ->). change (negb (pres_eqb ROk ROk)) with false. cbv iota zeta.
    apply wp_bind. eapply wp_rdo_rep; [exact H|exact PS|apply sk_live|]. intros ao Hpay _ _ _.
    apply wp_bind, wp_get. rewrite (pay_op _ _ Hpay), sk_notcall. cbn [negb orb].
    (* connectNonNamedObjArg *)
    apply wp_bind. unfold connectNonNamedObjArg.
    apply wp_bind. eapply wp_rdo_rep; [exact H|exact PS|apply sk_live|]. intros ao2 Hpay2 _ _ _.
    destruct (sk_row sk) as (Hr & _ & Hac & Htai).
    rewrite (pay_info _ _ Hpay2). apply wp_bind. eapply wp_info; [exact Hr|]. cbv beta iota.
    apply wp_bind, wp_get. rewrite (pay_th _ _ Hpay2). cbn [st_pay y_th]. scbn. rewrite Hh, N.eqb_refl.
    change (hasFlag 16 aml_pOpFlagNamed || negb true) with false. cbv iota.
    assert (Hlive_b : live (p_tree s) b) by (apply (R_live_glive _ _ (rep_R _ _ _ H)); eapply rep_live; [exact H|exact PS|apply sk_live]).
    apply wp_bind. eapply wp_tq; [apply (NumArgs_spec _ _ (rep_R _ _ _ H) b Hlive_b)|].
    rewrite KS, Hac, Htai. cbn [length]. rewrite <- Hn. fold nt.
    assert (Ec : (N.of_nat nt <=? 0) || (0 <? N.of_nat 0) = false) by (apply orb_false_iff; split; [apply N.leb_gt; lia|reflexivity]). rewrite Ec. cbv iota.
    assert (Hw : w8 (N.of_nat nt + 256 - 0) = N.of_nat nt) by (rewrite Hn; destruct sk; reflexivity). rewrite Hw.
    unfold attachSiblingsAsArgs.
    apply wp_bind. eapply (wp_rdf_sib False x pre b (ops ++ post)); [exact H|exact Hk1|]. intros o3 _ _ _ Hnext _. rewrite Hnext.
    replace (N.of_nat nt) with (N.of_nat (length ops)) by (unfold ops; rewrite seqN_len; reflexivity).
    replace (S (nt + f0)) with (length ops + S f0)%nat by (unfold ops; rewrite seqN_len; lia).
    eapply (attach_go_up ops true f0 x b pre post ax (st_pay h sk off) s g pl);
      [exact H|exact Hk1| |exact Hx|exact Hlx|exact PS|apply sk_live|].
    { intros c Hc. destruct (Hopc c Hc) as (Kc & a & Pa & Hla & _). split; [|exists a; auto].
      intros Hd. apply desc_leaf in Hd; [|exact Kc]. apply seqN_in in Hc. lia. }
    intros t2 g2 H2 Hlen2 Hk2.
    change (pres_eqb ROk RFailed) with false. cbv iota.
    assert (Hxb : (x =? b) = false) by (apply N.eqb_neq; lia).
    assert (Kx2 : kids g2 x = pre ++ b :: post) by (rewrite Hk2, Hxb, N.eqb_refl; reflexivity).
    apply wp_bind. eapply (wp_rdf_sib False x pre b post); [exact H2|exact Kx2|]. intros o4 _ _ Hprev _ _. rewrite Hprev.
    replace (length ops + S f0)%nat with (nt + S (S (nt + f0)) - rlen [IStmt sk ta])%nat by (cbn [rlen]; fold nt; unfold ops; rewrite seqN_len; lia).
    apply (K t2 g2 H2).
    cbn [lay5_item]. fold cs. constructor.
    + rewrite Kx2. reflexivity.
    + constructor; [|constructor].
      constructor; [exact PS|rewrite Hk2, N.eqb_refl, KS, leaf_row_idx, Hlc; reflexivity|].
        apply leaf_row_desc. intros i p Hi. assert (Hilt : (i < nt)%nat) by (rewrite <- Hlc; apply nth_error_Some; congruence).
        destruct (Hrow i p Hi) as (A & B0). split; [exact A|].
        rewrite Hk2. destruct (N.eqb_spec (b + 1 + N.of_nat i) b); [lia|]. destruct (N.eqb_spec (b + 1 + N.of_nat i) x); [lia|]. exact B0.
    + intros y Hy Hyx. rewrite isz_stmt in Hy. rewrite Hk2. destruct (N.eqb_spec y b); [lia|]. apply N.eqb_neq in Hyx. rewrite Hyx. reflexivity.
    + reflexivity.
Qed.

(** a block: the walk descends into its ScopeBlock; the block object itself is left alone *)
Lemma rspec_blk bk k seg fa body : RSpec body -> RSpec1 (IBlk bk k seg fa body).
Proof.
  intros IHb x pre post b off s g pl f ax R Q H Hk HD Hx Hlx Hrange Hh Hok HR Hf K.
  cbv beta in Hk, HD |- *. rename Hok into Hit.
  assert (Hbody_ok : forallb item_okb body = true) by (cbn [item_okb] in Hit; apply andb_prop in Hit; exact (proj2 Hit)).
  rewrite isz_blk in Hrange. rewrite rfuel_blk in Hf. rewrite lay2_blk in Hk, HD |- *. cbn [map ridx] in Hk |- *.
  set (l := bfx bk fa) in *. set (nf := length l) in *.
  assert (Hm : nfx bk fa = N.of_nat nf) by reflexivity. rewrite Hm in *.
  set (hdp := hd_pays h tbl bk off k fa) in *.
  assert (Hlh : length hdp = S nf) by apply len_hd_pays.
  set (off1 := sb_off bk off k fa) in *.
  set (sbi := b + 2 + N.of_nat nf) in *.
  set (bp := blk_pay h bk off (seg_nm seg)) in *.
  assert (Hlb : y_op bp <> opFreed) by (destruct bk; discriminate).
  pose proof (Forall_inv HD) as DD.
  destruct (Desc_inv _ _ _ _ _ DD) as (PD & KD & HD2). rewrite map_app, leaf_row_idx, Hlh in KD. cbn [map ridx] in KD.
  apply Forall_app in HD2. destruct HD2 as [HDrow HDsb]. pose proof (Forall_inv HDsb) as DS. clear HDsb.
  destruct (Desc_inv _ _ _ _ _ DS) as (PS & KS & HDbody).
  pose proof (leaf_row_desc_inv _ _ _ _ HDrow) as Hrow.
  assert (Hk1 : kids g x = pre ++ b :: post) by exact Hk.
  rewrite last_last.
  pose proof (rlen_le_rfuel body) as Hrlb.
  assert (EF : exists f4, (f = S (S (S (S f4))))%nat /\ (rfuel body + nf + 6 <= f4)%nat) by (exists (f - 4)%nat; lia).
  destruct EF as (f4 & -> & Hf4).
  (* the loop of the enclosing scope reaches the block object *)
  eapply (calls_step g pl h _ x pre b post bp s); [exact H|exact Hk1|exact PD|exact Hlb|].
  rewrite resolveMethodCalls_S.
  apply wp_bind. eapply wp_objectAt_rep; [exact H|exact PD|exact Hlb|].
  apply wp_bind. eapply wp_rdf_rep; [exact H|exact PD|exact Hlb|]. intros od _ _ _ Hlast. rewrite Hlast, KD, last_last.
  (* its ScopeBlock *)
  eapply (calls_step g pl h _ b (seqN (b + 1) (S nf)) sbi [] (sb_pay h off1) s); [exact H|exact KD|exact PS|discriminate|].
  rewrite resolveMethodCalls_S.
  apply wp_bind. eapply wp_objectAt_rep; [exact H|exact PS|discriminate|].
  apply wp_bind. eapply wp_rdf_rep; [exact H|exact PS|discriminate|]. intros os _ _ _ Hlasts. rewrite Hlasts, KS.
  change (map ridx (lay2 h tbl (b + 3 + N.of_nat nf) off1 body)) with ([] ++ map ridx (lay2 h tbl (b + 3 + N.of_nat nf) off1 body)).
  eapply (IHb sbi [] [] (b + 3 + N.of_nat nf) off1 s g pl f4 (sb_pay h off1) 2%nat);
    [exact H|rewrite KS, app_nil_r; reflexivity|exact HDbody|exact PS|discriminate|unfold sbi; lia|exact Hh|exact Hbody_ok|lia|lia|].
  intros t2 g2 H2 [U1 U2 U3 _]. cbn [last app] in U1 |- *. rewrite app_nil_r in U1.
  assert (EF3 : exists f3, (f4 - rlen body = S f3)%nat) by (exists (f4 - rlen body - 1)%nat; lia).
  destruct EF3 as (f3 & EF3). rewrite EF3. rewrite resolveCalls_loop_S, N.eqb_refl. apply wp_ret.
  (* the final shape of the block *)
  assert (Hin2 : forall y, b <= y < b + 2 + N.of_nat nf \/ y = x -> kids g2 y = kids g y).
  { intros y Hy. apply U3; unfold sbi; lia. }
  assert (KD2 : kids g2 b = seqN (b + 1) (S nf) ++ [sbi]) by (rewrite (Hin2 b ltac:(lia)); exact KD).
  assert (Kx2 : kids g2 x = pre ++ b :: post) by (rewrite (Hin2 x ltac:(lia)); exact Hk1).
  assert (Hrow2 : forall i p, nth_error hdp i = Some p -> pget pl (b + 1 + N.of_nat i) = Some p /\ kids g2 (b + 1 + N.of_nat i) = []).
  { intros i p Hi. assert (Hilt : (i < S nf)%nat) by (rewrite <- Hlh; apply nth_error_Some; congruence).
    destruct (Hrow i p Hi) as (A & B0). rewrite (Hin2 (b + 1 + N.of_nat i) ltac:(lia)). auto. }
  set (TB := RN b bp (leaf_row (b + 1) hdp ++ [RN sbi (sb_pay h off1) (lay5 h tbl (b + 3 + N.of_nat nf) off1 body)])).
  assert (DD2 : Desc g2 pl TB).
  { unfold TB. constructor; [exact PD|rewrite KD2, map_app, leaf_row_idx, Hlh; reflexivity|].
    apply Forall_app. split; [apply leaf_row_desc; exact Hrow2|]. constructor; [|constructor].
    constructor; [exact PS|exact U1|exact U2]. }
  assert (Ok2 : rallr f9_ok5E TB).
  { pose proof (lay5_ok5 h tbl [IBlk bk k seg fa body] b off) as E. cbn [lay5 forallb] in E. rewrite app_nil_r, lay5_blk, Hit in E.
    exact (Forall_inv (E eq_refl)). }
  assert (Hcond : forall y ay, In y (rnodes TB) -> pget pl y = Some ay -> y_op ay <> opFreed -> calls_ok g2 h y ay).
  { intros y ay Hy Py Hly. apply (f5_conds t2 g2 pl TB h H2 DD2 Ok2 y ay Hy Py Hly). }
  assert (Hinb : In b (rnodes TB)) by (unfold TB; rewrite rnodes_eq; left; reflexivity).
  assert (Hink : forall c, In c (kids g2 b) -> In c (rnodes TB)) by (intros c Hc; apply (Desc_kids_in g2 pl TB DD2 b c Hinb Hc)).
  split; [reflexivity|]. exists g2. split; [exact H2|]. split; [exact Hh|]. split; [exact KD2|].
  split; [apply Hcond; [apply Hink; rewrite KD2; apply in_or_app; right; left; reflexivity|exact PS|discriminate]|].
  (* the name path and the fixed arguments are stepped over *)
  eapply (loop_fuel_eq _ (length (seqN (b + 1) (S nf)) + S (S (f4 - nf - 2)))%nat); [rewrite seqN_len; lia|].
  eapply (calls_leaves h (seqN (b + 1) (S nf)) (f4 - nf - 2) b [sbi] _ g2 pl); [exact H2|exact Hh|exact KD2| |].
  { intros d Hd. pose proof Hd as Hd'. apply seqN_in in Hd.
    assert (Ei : exists i, d = b + 1 + N.of_nat i /\ (i < S nf)%nat) by (exists (N.to_nat (d - (b + 1))); lia).
    destruct Ei as (i & -> & Hi). destruct (nth_error hdp i) as [p|] eqn:Ep; [|apply nth_error_None in Ep; lia].
    destruct (Hrow2 i p Ep) as (A & B0). destruct (hd_rows h tbl bk off k fa p (nth_error_In _ _ Ep)) as (row & Hr & Hlp).
    split; [exact B0|]. exists p. split; [exact A|]. split; [exact Hlp|].
    apply Hcond; [apply Hink; rewrite KD2; apply in_or_app; left; exact Hd'|exact A|exact Hlp]. }
  rewrite resolveCalls_loop_S, N.eqb_refl. apply wp_ret.
  (* back in the loop of the enclosing scope *)
  split; [reflexivity|]. exists g2. split; [exact H2|]. split; [exact Hh|]. split; [exact Kx2|].
  split; [apply Hcond; [exact Hinb|exact PD|exact Hlb]|].
  replace (S (S (S f4))) with (S (S (S (S f4))) - rlen [IBlk bk k seg fa body])%nat by (cbn [rlen]; lia).
  apply (K t2 g2 H2).
  rewrite lay5_blk, isz_blk. fold l nf. rewrite Hm. fold hdp off1 sbi bp TB. constructor.
  - rewrite Kx2. reflexivity.
  - constructor; [exact DD2|constructor].
  - intros y Hy Hyx. apply U3; unfold sbi; lia.
  - reflexivity.
Qed.

Theorem rspec_all : forall its, RSpec its.
Proof.
  induction its as [|d rest IH|bk k seg fa body rest IHb IH|lk seg fa ta rest IH|seg k n elems rest IH|sk ta rest IH] using items_ind.
  - apply rspec_nil.
  - apply rspec_cons; [apply rspec_inert; reflexivity|exact IH].
  - apply rspec_cons; [apply rspec_blk; exact IHb|exact IH].
  - apply rspec_cons; [apply rspec_inert; reflexivity|exact IH].
  - apply rspec_cons; [apply rspec_inert; reflexivity|exact IH].
  - apply rspec_cons; [apply rspec_stmt|exact IH].
Qed.
End CallSpec.
