(** C13 proofs, part 3: under [R], Find / findRelative compute the reference resolver and never
    panic or run out of fuel; NumArgs / ArgAt read the child list. *)
From Coq Require Import NArith ZArith List Bool Lia.
From Coq Require Import ZifyBool ZifyN ZifyNat.
From FF Require Import Lib.Word Gen.Consts_aml_tree Aml.Stream Aml.Tree Aml.TreeSpec Aml.TreeProofs Aml.TreeProofsOps.
Import ListNotations.
Local Open Scope N_scope.

(** ---- pigeonhole: duplicate-free lists of pool slots are no longer than the pool ---- *)
Lemma NoDup_bounded_length (l : list N) (n : nat) :
  NoDup l -> (forall x, In x l -> x < N.of_nat n) -> (length l <= n)%nat.
Proof.
  intros Hnd Hb.
  assert (H : incl l (map N.of_nat (seq 0 n))).
  { intros x Hx. apply in_map_iff. exists (N.to_nat x). split; [apply N2Nat.id|].
    apply in_seq. specialize (Hb x Hx). lia. }
  pose proof (NoDup_incl_length Hnd H) as Hlen. rewrite map_length, seq_length in Hlen. exact Hlen.
Qed.

Section FindProofs.
Context {V : Type} (t : ObjectTree V) (g : ghost) (HR : R t g).

Let nm := name_at t.

Lemma kids_length i : (length (kids g i) <= length (t_pool t))%nat.
Proof.
  destruct (N.ltb_spec i (N.of_nat (length (g_kids g)))) as [Hlt|Hge].
  - rewrite (R_len _ _ HR) in Hlt. destruct (get_some _ _ Hlt) as (o & Ho).
    destruct (N.eq_dec (o_opcode o) opFreed) as [Hf|Hl].
    + destruct (R_freed _ _ HR _ _ Ho Hf) as [E _]. rewrite E. cbn. lia.
    + destruct (R_kids _ _ HR _ _ Ho Hl) as (_ & _ & Hc & Hnd).
      apply NoDup_bounded_length; auto. intros x Hx.
      destruct (chain_In_parent _ _ _ _ _ _ Hc Hx) as (ox & Hgx & _). eapply get_lt; eauto.
  - rewrite kids_oob by lia. cbn. lia.
Qed.

(** the parent chain of a live object is shorter than the pool *)
Lemma Depth_chain i k : Depth t i k ->
  exists l, length l = S k /\ NoDup l /\ (forall x, In x l -> x < N.of_nat (length (t_pool t))) /\
            (forall x, In x l -> exists j, (j <= k)%nat /\ Depth t x j).
Proof.
  induction 1 as [i o Hg Hl Hp | i o k Hg Hl Hp Hd IH].
  - exists [i]. split; [reflexivity|]. split; [repeat constructor; intros []|]. split.
    + intros x [<-|[]]. eapply get_lt; eauto.
    + intros x [<-|[]]. exists 0%nat. split; auto. eapply Depth_root; eauto.
  - destruct IH as (l & Hlen & Hnd & Hb & Hdp).
    exists (i :: l). split; [cbn; lia|]. split; [|split].
    + constructor; auto. intros Hin. destruct (Hdp _ Hin) as (j & Hj & Hdj).
      assert (Hd' : Depth t i (S k)) by (eapply Depth_step; eauto).
      pose proof (Depth_fun _ _ _ Hdj _ Hd'). lia.
    + intros x [<-|Hin]; auto. eapply get_lt; eauto.
    + intros x [<-|Hin].
      * exists (S k). split; auto. eapply Depth_step; eauto.
      * destruct (Hdp _ Hin) as (j & Hj & Hdj). exists j. split; auto.
Qed.

Lemma Depth_bound i k : Depth t i k -> (k < length (t_pool t))%nat.
Proof.
  intros Hd. destruct (Depth_chain _ _ Hd) as (l & Hlen & Hnd & Hb & _).
  pose proof (NoDup_bounded_length l _ Hnd Hb). lia.
Qed.

(** ---- the sibling loop is [find] over the child list ---- *)
Lemma find_sibling_chain seg p : forall l prev fuel,
  chain t p prev l InvalidIndex -> (length l < fuel)%nat ->
  find_sibling fuel t (hd InvalidIndex l) seg = Ok (find (fun c => name_eqb seg (nm c)) l).
Proof.
  induction l as [|c l IH]; intros prev fuel Hc Hf.
  - destruct fuel; [cbn in Hf; lia|]. cbn [find_sibling hd]. rewrite N.eqb_refl. reflexivity.
  - destruct fuel; [cbn in Hf; lia|]. cbn [hd find_sibling find].
    destruct Hc as [(oc & Hg & Hl & _ & _ & Hn) Hc].
    rewrite (R_eqb_Inv t g HR _ _ Hg).
    rewrite (R_ObjectAt_deref t g HR _ _ Hg Hl). cbn [bind].
    rewrite deref_get, Hg. cbn [bind].
    unfold nm at 1. unfold name_at. rewrite Hg.
    destruct (name_eqb seg (o_name oc)); [reflexivity|].
    rewrite Hn. apply (IH c). exact Hc. cbn in Hf. lia.
Qed.

Lemma lookup_ok scope so seg :
  get t scope = Some so -> o_opcode so <> opFreed ->
  find_sibling (chain_fuel t) t (o_first so) seg = Ok (lookup g nm scope seg).
Proof.
  intros Hg Hl. destruct (R_kids _ _ HR _ _ Hg Hl) as (Hf & _ & Hc & _).
  rewrite Hf. unfold lookup. eapply find_sibling_chain; eauto.
  unfold chain_fuel. pose proof (kids_length scope). lia.
Qed.

Lemma lookup_live scope seg c : lookup g nm scope seg = Some c ->
  In c (kids g scope) /\ exists co, get t c = Some co /\ o_opcode co <> opFreed.
Proof.
  unfold lookup. intros H. apply find_some in H. destruct H as [Hin _]. split; auto.
  destruct (R_In_kids t g HR _ _ Hin) as (_ & co & Hc & Hl & _). eauto.
Qed.

(** ---- findRelative ---- *)
Lemma findRelative_go_spec : forall n e sk scope,
  (length e <= n)%nat -> live t scope ->
  findRelative_go sk t scope e =
    Ok (enc_result (match segments sk e with Some names => walk g nm scope names | None => None end)).
Proof.
  induction n as [|n IH]; intros e sk scope Hlen Hlive.
  - destruct e; [|cbn in Hlen; lia]. cbn. destruct sk; reflexivity.
  - destruct e as [|b0 rest0]; [cbn; destruct sk; reflexivity|].
    cbn [findRelative_go segments]. destruct (is_lead b0).
    + destruct rest0 as [|b1 [|b2 [|b3 rest]]]; try reflexivity.
      destruct Hlive as (so & Hg & Hl).
      rewrite (R_ObjectAt_deref t g HR _ _ Hg Hl). cbn [bind].
      rewrite (rd_ok _ _ _ _ Hg). cbn [bind].
      rewrite (lookup_ok _ _ _ Hg Hl). cbn [bind].
      destruct (lookup g nm scope (b0, b1, b2, b3)) as [c|] eqn:El.
      * destruct (lookup_live _ _ _ El) as (_ & co & Hc & Hcl).
        rewrite (IH rest false c); [| cbn in Hlen; lia | exists co; auto].
        destruct (segments false rest); cbn [option_map walk]; [rewrite El|]; reflexivity.
      * destruct (segments false rest); cbn [option_map walk]; [rewrite El|]; reflexivity.
    + destruct (b0 =? 0x2f).
      * destruct rest0 as [|b1 rest1]; [reflexivity|]. apply IH; [cbn in Hlen; lia | exact Hlive].
      * apply IH; [cbn in Hlen; lia | exact Hlive].
Qed.

Lemma findRelative_spec scope e : live t scope ->
  findRelative t scope e = Ok (enc_result (resolve_rel g nm scope e)).
Proof. intros H. unfold findRelative, resolve_rel. eapply findRelative_go_spec; eauto. Qed.

(** ---- the ^ loop ---- *)
Lemma parent_step scope so : get t scope = Some so -> o_opcode so <> opFreed ->
  parent_of g scope = (if o_parent so =? InvalidIndex then None else Some (o_parent so)) /\
  (o_parent so <> InvalidIndex -> live t (o_parent so)).
Proof.
  intros Hg Hl. split; [eapply parent_of_spec; eauto|].
  intros Hp. destruct (R_parent_live t g HR _ _ Hg Hl Hp) as (_ & po & Hpo & Hpl). exists po. auto.
Qed.

Lemma find_carets_spec : forall e scope, live t scope ->
  find_carets t scope e = Ok (enc_result (carets g nm scope e)).
Proof.
  induction e as [|b rest IH]; intros scope Hlive; [reflexivity|].
  cbn [find_carets carets]. destruct (b =? 0x5e) eqn:Eb.
  - destruct Hlive as (so & Hg & Hl).
    rewrite (R_ObjectAt_deref t g HR _ _ Hg Hl). cbn [bind].
    rewrite (rd_ok _ _ _ _ Hg). cbn [bind].
    destruct (parent_step _ _ Hg Hl) as [Hpo Hpl]. rewrite Hpo.
    destruct (N.eqb_spec (o_parent so) InvalidIndex) as [E|E]; [reflexivity|].
    apply IH. auto.
  - apply findRelative_spec. exact Hlive.
Qed.

(** ---- the upward search ---- *)
Lemma find_upward_step seg scope so fi : get t scope = Some so -> o_opcode so <> opFreed ->
  find_upward (S fi) t scope seg =
  match lookup g nm scope seg with Some c => Ok c | None => find_upward fi t (o_parent so) seg end.
Proof.
  intros Hg Hl. cbn [find_upward]. rewrite (R_eqb_Inv t g HR _ _ Hg), (R_ObjectAt_deref t g HR _ _ Hg Hl). cbn [bind].
  rewrite (rd_ok _ _ _ _ Hg). cbn [bind]. rewrite (lookup_ok _ _ _ Hg Hl). cbn [bind].
  destruct (lookup g nm scope seg) as [c|] eqn:El.
  - destruct (lookup_live _ _ _ El) as (_ & co & Hc & Hcl). rewrite (rd_ok _ _ _ _ Hc), (R_index _ _ HR _ _ Hc). reflexivity.
  - rewrite (rd_ok _ _ _ _ Hg). reflexivity.
Qed.

Lemma find_upward_spec seg : forall k scope, Depth t scope k ->
  forall fi fs, (k + 2 <= fi)%nat -> (k + 1 <= fs)%nat ->
  find_upward fi t scope seg = Ok (enc_result (search_up g nm fs scope seg)).
Proof.
  intros k scope Hd.
  induction Hd as [scope so Hg Hl Hp | scope so k Hg Hl Hp Hd IH]; intros fi fs Hfi Hfs;
    (destruct fi as [|fi]; [lia|]); (destruct fs as [|fs]; [lia|]);
    rewrite (find_upward_step _ _ _ _ Hg Hl); cbn [search_up];
    (destruct (lookup g nm scope seg); [reflexivity|]);
    rewrite (proj1 (parent_step _ _ Hg Hl)).
  - rewrite Hp, N.eqb_refl. destruct fi as [|fi]; [lia|]. cbn [find_upward]. rewrite N.eqb_refl. reflexivity.
  - apply N.eqb_neq in Hp. rewrite Hp. apply IH; lia.
Qed.

(** ---- Find ---- *)
Theorem Find_spec scope e : live t scope -> live t 0 ->
  Find t scope e = Ok (enc_result (resolve g nm scope e)).
Proof.
  intros Hlive Hroot. unfold Find, resolve.
  destruct e as [|b0 rest]; [reflexivity|].
  assert (Hsv : scope <> InvalidIndex).
  { destruct Hlive as (so & Hg & _). eapply (R_pos_not_Inv t g HR); eauto. }
  apply N.eqb_neq in Hsv. rewrite Hsv.
  destruct (b0 =? 0x5c) eqn:E1.
  { destruct rest as [|b1 rest]; [reflexivity|]. apply findRelative_spec. exact Hroot. }
  destruct (b0 =? 0x5e) eqn:E2.
  { apply find_carets_spec. exact Hlive. }
  rewrite amlNameLen_is_4.
  destruct rest as [|b1 [|b2 [|b3 [|b4 rest]]]]; try reflexivity.
  - (* exactly one segment: search upward *)
    destruct Hlive as (so & Hg & Hl). destruct (R_acyc _ _ HR _ _ Hg Hl) as (k & Hd).
    pose proof (Depth_bound _ _ Hd) as Hk.
    apply find_upward_spec with (k := k); auto.
    + unfold chain_fuel. lia.
    + rewrite (R_len _ _ HR). lia.
  - (* more than four bytes *)
    assert (Hlen : (4 <? N.of_nat (length (b0 :: b1 :: b2 :: b3 :: b4 :: rest))) = true).
    { apply N.ltb_lt. cbn [length]. lia. }
    rewrite Hlen. apply findRelative_spec. exact Hlive.
Qed.

(** ---- what a lookup returns is a live object ---- *)
Lemma walk_live : forall names scope r, live t scope -> walk g nm scope names = Some r -> live t r.
Proof.
  induction names as [|n names IH]; intros scope r Hl H; cbn [walk] in H.
  - inversion H; subst; auto.
  - destruct (lookup g nm scope n) as [c|] eqn:El; [|discriminate].
    destruct (lookup_live _ _ _ El) as (_ & co & Hc & Hcl). eapply IH; [|exact H]. exists co; auto.
Qed.

Lemma resolve_rel_live scope e r : live t scope -> resolve_rel g nm scope e = Some r -> live t r.
Proof.
  unfold resolve_rel. intros Hl H. destruct (segments false e); [|discriminate]. eapply walk_live; eauto.
Qed.

Lemma parent_of_live scope p : live t scope -> parent_of g scope = Some p -> live t p.
Proof.
  intros (so & Hg & Hl) H. destruct (parent_step _ _ Hg Hl) as [Hpo Hpl]. rewrite Hpo in H.
  destruct (N.eqb_spec (o_parent so) InvalidIndex); [discriminate|]. inversion H; subst. auto.
Qed.

Lemma carets_live : forall e scope r, live t scope -> carets g nm scope e = Some r -> live t r.
Proof.
  induction e as [|b rest IH]; intros scope r Hl H; cbn [carets] in H.
  - inversion H; subst; auto.
  - destruct (b =? 0x5e).
    + destruct (parent_of g scope) as [p|] eqn:Ep; [|discriminate]. eapply IH; [|exact H].
      eapply parent_of_live; eauto.
    + eapply resolve_rel_live; eauto.
Qed.

Lemma search_up_live seg : forall fuel scope r, live t scope -> search_up g nm fuel scope seg = Some r -> live t r.
Proof.
  induction fuel as [|fuel IH]; intros scope r Hl H; cbn [search_up] in H; [discriminate|].
  destruct (lookup g nm scope seg) as [c|] eqn:El.
  - inversion H; subst. destruct (lookup_live _ _ _ El) as (_ & co & Hc & Hcl). exists co; auto.
  - destruct (parent_of g scope) as [p|] eqn:Ep; [|discriminate]. eapply IH; [|exact H].
    eapply parent_of_live; eauto.
Qed.

Lemma resolve_live scope e r : live t scope -> live t 0 -> resolve g nm scope e = Some r -> live t r.
Proof.
  intros Hl H0 H. unfold resolve in H. destruct e as [|b0 rest]; [discriminate|].
  destruct (b0 =? 0x5c); [exact (resolve_rel_live 0 _ _ H0 H)|].
  destruct (b0 =? 0x5e); [exact (carets_live _ scope _ Hl H)|].
  destruct rest as [|b1 [|b2 [|b3 [|b4 rest]]]]; try discriminate.
  - exact (search_up_live _ _ scope _ Hl H).
  - destruct (4 <? N.of_nat (length (b0 :: b1 :: b2 :: b3 :: b4 :: rest))); [|discriminate].
    exact (resolve_rel_live scope _ _ Hl H).
Qed.

Theorem Find_result_live scope e r : live t scope -> live t 0 ->
  Find t scope e = Ok r -> r = InvalidIndex \/ live t r.
Proof.
  intros Hl H0 H. rewrite (Find_spec scope e Hl H0) in H. inversion H as [E]. clear H.
  destruct (resolve g nm scope e) as [r'|] eqn:Er; cbn [enc_result] in *.
  - right. exact (resolve_live scope e r' Hl H0 Er).
  - left. reflexivity.
Qed.

(** ---- no link of a live object leads to a freed or missing slot ---- *)
Lemma chain_links_in p : forall l prev nxt x ox, chain t p prev l nxt -> In x l -> get t x = Some ox ->
  (o_prev ox = prev \/ In (o_prev ox) l) /\ (o_next ox = nxt \/ In (o_next ox) l).
Proof.
  induction l as [|c l IH]; intros prev nxt x ox Hc Hin Hg; [contradiction|].
  destruct Hc as [(oc & Hgc & _ & _ & Hpv & Hnx) Hc].
  destruct (N.eq_dec x c) as [->|Hne].
  - assert (ox = oc) by congruence. subst ox. split; [left; auto|].
    destruct l as [|c' l']; cbn [hd] in Hnx; [left; auto|right; right; left; auto].
  - destruct Hin as [E|Hin]; [congruence|]. destruct (IH c nxt x ox Hc Hin Hg) as [[A|A] [B|B]].
    + split; [right; left; auto|left; auto].
    + split; [right; left; auto|right; right; auto].
    + split; [right; right; auto|left; auto].
    + split; right; right; auto.
Qed.

Lemma In_kids_live p c : In c (kids g p) -> live t c.
Proof. intros H. destruct (R_In_kids t g HR _ _ H) as (_ & co & Hc & Hl & _). exists co; auto. Qed.

Theorem links_live i o : get t i = Some o -> o_opcode o <> opFreed ->
  forall l, In l [o_parent o; o_prev o; o_next o; o_first o; o_last o] -> l = InvalidIndex \/ live t l.
Proof.
  intros Hg Hl.
  destruct (R_kids _ _ HR _ _ Hg Hl) as (Hf & Hla & _ & _).
  assert (Hfirst : o_first o = InvalidIndex \/ live t (o_first o)).
  { rewrite Hf. destruct (kids g i) as [|c l] eqn:E; [left; reflexivity|right].
    apply (In_kids_live i). rewrite E. left. reflexivity. }
  assert (Hlast : o_last o = InvalidIndex \/ live t (o_last o)).
  { rewrite Hla. destruct (kids g i) as [|c l] eqn:E; [left; reflexivity|right].
    apply (In_kids_live i). rewrite E. apply last_In. }
  pose proof (R_up _ _ HR _ _ Hg Hl) as Hup.
  assert (Hrest : (o_parent o = InvalidIndex \/ live t (o_parent o)) /\
                  (o_prev o = InvalidIndex \/ live t (o_prev o)) /\
                  (o_next o = InvalidIndex \/ live t (o_next o))).
  { destruct (N.eqb_spec (o_parent o) InvalidIndex) as [E|E].
    - destruct Hup as [A B]. auto.
    - destruct (R_parent_live t g HR _ _ Hg Hl E) as (Hin & po & Hpo & Hpl).
      split; [right; exists po; auto|].
      destruct (R_kids _ _ HR _ _ Hpo Hpl) as (_ & _ & Hc & _).
      destruct (chain_links_in _ _ _ _ _ _ Hc Hin Hg) as [[A|A] [B|B]]; split; auto;
        right; eapply In_kids_live; eauto. }
  destruct Hrest as (A & B & C).
  intros l [<-|[<-|[<-|[<-|[<-|[]]]]]]; auto.
Qed.

Lemma ObjectAt_freed i o : get t i = Some o -> o_opcode o = opFreed -> ObjectAt t i = None.
Proof.
  intros Hg Hf. unfold ObjectAt. destruct (pool_len t <=? i); [reflexivity|].
  unfold get in Hg. rewrite Hg. apply N.eqb_eq in Hf. rewrite Hf. reflexivity.
Qed.

(** ---- NumArgs / ArgAt read the child list ---- *)
Lemma numArgs_go_chain p : forall l prev fuel cnt,
  chain t p prev l InvalidIndex -> (length l < fuel)%nat -> cnt + N.of_nat (length l) < two32 ->
  numArgs_go fuel t (hd InvalidIndex l) cnt = Ok (cnt + N.of_nat (length l)).
Proof.
  induction l as [|c l IH]; intros prev fuel cnt Hc Hf Hb.
  - destruct fuel; [cbn in Hf; lia|]. cbn [numArgs_go hd length]. rewrite N.eqb_refl. f_equal. lia.
  - destruct fuel; [cbn in Hf; lia|]. cbn [hd numArgs_go].
    destruct Hc as [(oc & Hg & Hl & _ & _ & Hn) Hc].
    rewrite (R_eqb_Inv t g HR _ _ Hg).
    rewrite (R_ObjectAt_deref t g HR _ _ Hg Hl). cbn [bind].
    rewrite (rd_ok _ _ _ _ Hg). cbn [bind]. rewrite Hn.
    cbn [length] in Hb. rewrite w32_small by lia.
    rewrite (IH c); auto; cbn [length] in *; try lia. f_equal. lia.
Qed.

Theorem NumArgs_spec p : live t p -> NumArgs t (Some p) = Ok (N.of_nat (length (kids g p))).
Proof.
  intros (po & Hg & Hl). unfold NumArgs. rewrite (rd_ok _ _ _ _ Hg). cbn [bind].
  destruct (R_kids _ _ HR _ _ Hg Hl) as (Hf & _ & Hc & _). rewrite Hf.
  pose proof (kids_length p) as Hk. pose proof (R_bound _ _ HR) as Hb. pose proof Inv_lt_two32.
  erewrite numArgs_go_chain; eauto.
  - unfold chain_fuel. lia.
  - lia.
Qed.

Lemma argAt_go_chain p index : forall l prev fuel a,
  chain t p prev l InvalidIndex -> (length l < fuel)%nat -> a + N.of_nat (length l) < two32 -> a <= index ->
  argAt_go fuel t a (hd InvalidIndex l) index = Ok (nth_error l (N.to_nat (index - a))).
Proof.
  induction l as [|c l IH]; intros prev fuel a Hc Hf Hb Ha.
  - destruct fuel; [cbn in Hf; lia|]. cbn [argAt_go hd]. rewrite N.eqb_refl.
    destruct (N.to_nat (index - a)); reflexivity.
  - destruct fuel; [cbn in Hf; lia|]. cbn [hd argAt_go].
    destruct Hc as [(oc & Hg & Hl & _ & _ & Hn) Hc].
    rewrite (R_eqb_Inv t g HR _ _ Hg).
    destruct (N.eqb_spec a index) as [E|E].
    + subst a. rewrite N.sub_diag. cbn [N.to_nat nth_error].
      erewrite ObjectAt_live; [reflexivity | apply (R_bound _ _ HR) | exact Hg | exact Hl].
    + rewrite (R_ObjectAt_deref t g HR _ _ Hg Hl). cbn [bind].
      rewrite (rd_ok _ _ _ _ Hg). cbn [bind]. rewrite Hn.
      cbn [length] in Hb. rewrite w32_small by lia.
      rewrite (IH c); auto; cbn [length] in *; try lia.
      replace (N.to_nat (index - a)) with (S (N.to_nat (index - (a + 1)))) by lia. reflexivity.
Qed.

Theorem ArgAt_spec p index : live t p ->
  ArgAt t (Some p) index = Ok (nth_error (kids g p) (N.to_nat index)).
Proof.
  intros (po & Hg & Hl). unfold ArgAt. rewrite (rd_ok _ _ _ _ Hg). cbn [bind].
  destruct (R_kids _ _ HR _ _ Hg Hl) as (Hf & _ & Hc & _). rewrite Hf.
  pose proof (kids_length p) as Hk. pose proof (R_bound _ _ HR) as Hb. pose proof Inv_lt_two32.
  erewrite argAt_go_chain; eauto.
  - rewrite N.sub_0_r. reflexivity.
  - unfold chain_fuel. lia.
  - lia.
  - lia.
Qed.

End FindProofs.
