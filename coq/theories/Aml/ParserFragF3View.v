(** C11 (tables with Scope directives): the namespace view of the forests [keep] and [moved]: the contents of the Scope
    directives appear below the predefined scopes, the other items below the root. *)
From Coq Require Import NArith ZArith Arith List Bool Lia Permutation.
From Coq Require Import ZifyBool ZifyN ZifyNat.
From FF Require Import Lib.Word Gen.Consts_device_acpi_aml Gen.Consts_aml_tree Aml.Stream Aml.Lex
  Aml.Tree Aml.TreeSpec Aml.TreeProofs Aml.Parser Aml.Grammar Aml.LexRoundtrip
  Aml.ParserTotalBase Aml.ParserFragBase Aml.ParserFragFirst Aml.ParserFragF0 Aml.ParserFragF0Conn Aml.ParserFragF0Top
  Aml.ParserFragRose Aml.ParserFragF1 Aml.ParserFragF1First Aml.ParserFragF1Conn Aml.ParserFragF1Top
  Aml.View Aml.ParserFragView Aml.ParserFragF1View
  Aml.ParserFragScope Aml.ParserFragScope3 Aml.ParserFragF3Top.
Import ListNotations.
Local Open Scope N_scope.

Definition vkeep (ts : list titem) : list (list N) :=
  flat_map (fun x => match x with TItem it => ventry [] it | TScope _ _ _ _ => [] end) ts.
Definition vmoved (ts : list titem) (d : N) : list (list N) :=
  flat_map (fun x => match x with TItem _ => [] | TScope _ _ d' body => if d' =? d then ventries [dseg d] body else [] end) ts.
Definition view3 (ts : list titem) : list (list N) :=
  vmoved ts 1 ++ vmoved ts 2 ++ vmoved ts 3 ++ vmoved ts 4 ++ vmoved ts 5 ++ vkeep ts.

(** what the specification lists *)
Definition sentries3 (ts : list titem) : list (list N) :=
  flat_map (fun x => match x with TItem it => sentry [] it | TScope _ _ d body => sentries [dseg d] body end) ts.

Lemma perm_ins {A} (X L1 L2 : list A) : Permutation (L1 ++ X ++ L2) (X ++ L1 ++ L2).
Proof. apply Permutation_app_swap_app. Qed.

Lemma view3_perm : forall ts, forallb titem_okb ts = true -> Permutation (view3 ts) (sentries3 ts).
Proof.
  induction ts as [|x t IH]; intros Hok; [constructor|]. cbn [forallb] in Hok. apply andb_prop in Hok. destruct Hok as [Hx Hok].
  specialize (IH Hok). unfold view3 in *. cbn [sentries3 vkeep vmoved flat_map]. fold (vkeep t) (sentries3 t).
  fold (vmoved t 1) (vmoved t 2) (vmoved t 3) (vmoved t 4) (vmoved t 5).
  set (A1 := vmoved t 1) in *. set (A2 := vmoved t 2) in *. set (A3 := vmoved t 3) in *. set (A4 := vmoved t 4) in *. set (A5 := vmoved t 5) in *.
  set (K := vkeep t) in *.
  destruct x as [it|k root d body].
  - cbn [app]. eapply Permutation_trans; [|apply Permutation_app; [|exact IH]].
    2:{ pose proof (ventries_perm [it] []) as P. cbn [ventries sentries flat_map] in P. rewrite !app_nil_r in P. exact P. }
    replace (A1 ++ A2 ++ A3 ++ A4 ++ A5 ++ ventry [] it ++ K) with ((A1 ++ A2 ++ A3 ++ A4 ++ A5) ++ ventry [] it ++ K) by (rewrite <- !app_assoc; reflexivity).
    eapply Permutation_trans; [apply perm_ins|]. rewrite <- !app_assoc. apply Permutation_refl.
  - cbn [titem_okb] in Hx. apply andb_prop in Hx. destruct Hx as [Hx _]. apply andb_prop in Hx. destruct Hx as [Hx _].
    apply andb_prop in Hx. destruct Hx as [Hd1 Hd5]. apply N.leb_le in Hd1. apply N.leb_le in Hd5.
    set (X := ventries [dseg d] body).
    eapply Permutation_trans; [|apply Permutation_app; [apply (ventries_perm body [dseg d])|exact IH]]. fold X.
    assert (Hc : d = 1 \/ d = 2 \/ d = 3 \/ d = 4 \/ d = 5) by lia.
    destruct Hc as [ -> | [ -> | [ -> | [ -> | -> ] ] ] ]; cbn [N.eqb Pos.eqb app]; fold X.
    + rewrite <- !app_assoc. apply Permutation_refl.
    + rewrite <- !app_assoc. apply perm_ins.
    + replace (A1 ++ A2 ++ (X ++ A3) ++ A4 ++ A5 ++ K) with ((A1 ++ A2) ++ X ++ A3 ++ A4 ++ A5 ++ K) by (rewrite <- !app_assoc; reflexivity).
      eapply Permutation_trans; [apply perm_ins|]. rewrite <- !app_assoc. apply Permutation_refl.
    + replace (A1 ++ A2 ++ A3 ++ (X ++ A4) ++ A5 ++ K) with ((A1 ++ A2 ++ A3) ++ X ++ A4 ++ A5 ++ K) by (rewrite <- !app_assoc; reflexivity).
      eapply Permutation_trans; [apply perm_ins|]. rewrite <- !app_assoc. apply Permutation_refl.
    + replace (A1 ++ A2 ++ A3 ++ A4 ++ (X ++ A5) ++ K) with ((A1 ++ A2 ++ A3 ++ A4) ++ X ++ A5 ++ K) by (rewrite <- !app_assoc; reflexivity).
      eapply Permutation_trans; [apply perm_ins|]. rewrite <- !app_assoc. apply Permutation_refl.
Qed.

(** a named ScopeBlock with declarations below it *)
Lemma walkF_scope (t : T) tables f known p es stmts c co es' :
  obj t c = Some co -> o_opcode co = aml_pOpIntScopeBlock -> name_eqb (o_name co) (0, 0, 0, 0) = false ->
  walk t tables f known c (p ++ [name_num (o_name co)]) = (es', []) ->
  walkF t tables f known p (es, stmts) c = (es ++ es', stmts).
Proof.
  intros Ho Hop Hnm Hw. unfold walkF. rewrite Ho. cbv zeta.
  unfold is_zero_scopeblock. rewrite Hop, Hnm. change ((aml_pOpIntScopeBlock =? aml_pOpIntScopeBlock) && negb (true && false)) with true. cbv iota.
  rewrite Hw. cbn [anon map]. rewrite app_nil_r. reflexivity.
Qed.

Section ViewF3.
Variable t : T.
Variable g : ghost.
Variable pl : list pay.
Hypothesis H : Rep t g pl.
Variable tables : list (list N).

Lemma lay2_fuel vh vtbl its b off f : Forall (Desc g pl) (lay2 vh vtbl b off its) -> 6 <= b -> (6 <= length pl <= f + 2)%nat -> (iszs its < f)%nat.
Proof.
  intros HD Hb Hf. destruct (iszs its) as [|n] eqn:En; [lia|].
  assert (Hin : In (b + N.of_nat n) (rnodesl (lay2 vh vtbl b off its))) by (apply lay2_nodes_all; lia).
  unfold rnodesl in Hin. apply in_flat_map in Hin. destruct Hin as (r & Hr & Hy). rewrite Forall_forall in HD.
  destruct (Desc_lookup g pl r (HD r Hr) _ Hy) as (a & ks & Dy). destruct (Desc_inv _ _ _ _ _ Dy) as (Py & _ & _).
  apply pget_lt in Py. lia.
Qed.

Lemma keep_fold vh vtbl f known data : nth_error tables (N.to_nat vtbl) = Some data -> forall ts es st b dpre dpost,
  data = dpre ++ enc_titems ts ++ dpost ->
  Forall (Desc g pl) (keep vh vtbl b (lenN dpre) ts) -> forallb titem_okb ts = true -> 6 <= b -> (6 <= length pl <= f + 2)%nat ->
  fold_left (walkF t tables f known []) (map ridx (keep vh vtbl b (lenN dpre) ts)) (es, st) = (es ++ vkeep ts, st).
Proof.
  intros Hnth. induction ts as [|x ts IH]; intros es st b dpre dpost Hdata HD Hok Hb Hf.
  - cbn [keep map fold_left vkeep flat_map]. rewrite app_nil_r. reflexivity.
  - cbn [forallb] in Hok. apply andb_prop in Hok. destruct Hok as [Hx Hok].
    rewrite enc_titems_cons in Hdata.
    assert (Hd' : data = (dpre ++ enc_titem x) ++ enc_titems ts ++ dpost) by (rewrite Hdata, <- !app_assoc; reflexivity).
    assert (Ho' : lenN dpre + lenN (enc_titem x) = lenN (dpre ++ enc_titem x)) by (rewrite lenN_app; reflexivity).
    cbn [keep] in HD |- *. rewrite Ho' in HD |- *. apply Forall_app in HD. destruct HD as [HDx HDr]. rewrite map_app, fold_left_app.
    destruct x as [it|k root d body].
    + cbn [titem_okb] in Hx. rewrite <- lay2_single in HDx |- *. cbn [enc_titem] in Hdata.
      rewrite (vspec_all t g pl H tables [it] vh vtbl f known [] es st b (lenN dpre) data dpre (enc_titems ts ++ dpost) Hnth
                 ltac:(rewrite Hdata; cbn [enc_items flat_map]; rewrite <- !app_assoc; reflexivity) eq_refl
                 HDx ltac:(cbn [forallb]; rewrite Hx; reflexivity) (lay2_fuel _ _ _ _ _ _ HDx Hb Hf)).
      rewrite (IH _ st _ _ dpost Hd' HDr Hok ltac:(clear -Hb; lia) Hf). cbn [vkeep flat_map ventries]. rewrite app_nil_r, <- app_assoc. reflexivity.
    + cbn [map fold_left]. rewrite (IH _ st _ _ dpost Hd' HDr Hok ltac:(clear -Hb; lia) Hf). reflexivity.
Qed.

Lemma moved_fold vh vtbl f known d data : nth_error tables (N.to_nat vtbl) = Some data -> forall ts es st b dpre dpost,
  data = dpre ++ enc_titems ts ++ dpost ->
  Forall (Desc g pl) (moved vh vtbl b (lenN dpre) ts d) -> forallb titem_okb ts = true -> 6 <= b -> (6 <= length pl <= f + 2)%nat ->
  fold_left (walkF t tables f known [dseg d]) (map ridx (moved vh vtbl b (lenN dpre) ts d)) (es, st) = (es ++ vmoved ts d, st).
Proof.
  intros Hnth. induction ts as [|x ts IH]; intros es st b dpre dpost Hdata HD Hok Hb Hf.
  - cbn [moved map fold_left vmoved flat_map]. rewrite app_nil_r. reflexivity.
  - cbn [forallb] in Hok. apply andb_prop in Hok. destruct Hok as [Hx Hok].
    rewrite enc_titems_cons in Hdata.
    assert (Hd' : data = (dpre ++ enc_titem x) ++ enc_titems ts ++ dpost) by (rewrite Hdata, <- !app_assoc; reflexivity).
    assert (Ho' : lenN dpre + lenN (enc_titem x) = lenN (dpre ++ enc_titem x)) by (rewrite lenN_app; reflexivity).
    cbn [moved] in HD |- *. rewrite Ho' in HD |- *. apply Forall_app in HD. destruct HD as [HDx HDr]. rewrite map_app, fold_left_app.
    destruct x as [it|k root d' body].
    + cbn [map fold_left]. rewrite (IH _ st _ _ dpost Hd' HDr Hok ltac:(clear -Hb; lia) Hf). reflexivity.
    + cbn [titem_okb] in Hx. apply andb_prop in Hx. destruct Hx as [Hx Hbody]. apply andb_prop in Hx. destruct Hx as [_ Hpk]. apply pkglen_okb_adm in Hpk.
      cbn [vmoved flat_map]. fold (vmoved ts d). destruct (d' =? d).
      * cbn [enc_titem] in Hdata. unfold sc_body in Hdata, Hpk.
        set (V := k + lenN (enc_name (sc_name root (dseg d')) ++ enc_items body)) in *.
        assert (Eo : lenN dpre + 1 + k + sc_len root = lenN (dpre ++ enc_op OP_SCOPE ++ enc_pkglen k V ++ enc_name (sc_name root (dseg d')))).
        { rewrite (lenN_app dpre), (lenN_app (enc_op _)), (lenN_app (enc_pkglen _ _)), (lenN_enc_pkglen _ _ Hpk), lenN_sc_name. change (lenN (enc_op OP_SCOPE)) with 1. clear; lia. }
        rewrite Eo in HDx |- *.
        rewrite (vspec_all t g pl H tables body vh vtbl f known [dseg d] es st (b + 3) (lenN (dpre ++ enc_op OP_SCOPE ++ enc_pkglen k V ++ enc_name (sc_name root (dseg d')))) data
                   (dpre ++ enc_op OP_SCOPE ++ enc_pkglen k V ++ enc_name (sc_name root (dseg d'))) (enc_titems ts ++ dpost) Hnth
                   ltac:(rewrite Hdata, <- !app_assoc; reflexivity) eq_refl HDx Hbody (lay2_fuel _ _ _ _ _ _ HDx ltac:(clear -Hb; lia) Hf)).
        rewrite (IH _ st _ _ dpost Hd' HDr Hok ltac:(clear -Hb; lia) Hf). rewrite <- app_assoc. reflexivity.
      * cbn [map fold_left]. rewrite (IH _ st _ _ dpost Hd' HDr Hok ltac:(clear -Hb; lia) Hf). reflexivity.
Qed.

Lemma dname_num d : 1 <= d <= 5 -> name_num (dname d) = dseg d /\ name_eqb (dname d) (0, 0, 0, 0) = false.
Proof.
  intros Hd. assert (Hc : d = 1 \/ d = 2 \/ d = 3 \/ d = 4 \/ d = 5) by lia.
  destruct Hc as [ -> | [ -> | [ -> | [ -> | -> ] ] ] ]; split; reflexivity.
Qed.

End ViewF3.
