(** C11 (fragments F1 .. F8): the first pass builds [lay1].
    The proof over all items is ParserFragF9First.v; it is exported from here with everything that does not depend on
    the item type ([Post1], the loop [list_cont], the reader lemmas), and its results are read over the items of
    ParserFragF1.v through the embedding [emb]. *)
From Coq Require Import NArith ZArith Arith List Bool Lia.
From FF Require Import Lib.Word Gen.Consts_device_acpi_aml Aml.Stream Aml.Lex Aml.Tree Aml.TreeSpec Aml.Parser Aml.Grammar
  Aml.ParserTotalBase Aml.ParserFragBase Aml.ParserFragFirst Aml.ParserFragRose.
From FF Require Export Aml.ParserFragF9First.
From FF Require Import Aml.ParserFragF1.
Import ListNotations.
Local Open Scope N_scope.

Lemma enc_pels_cons x t : enc_pels (x :: t) = enc_pel x ++ enc_pels t. Proof. reflexivity. Qed.

Lemma lay1_rsizes h tbl : forall l b off, rsizes (lay1 h tbl b off l) = iszs l.
Proof. intros l b off. rewrite <- lay1_emb, <- iszs_emb. apply ParserFragF9First.lay1_rsizes. Qed.

Lemma lay1_nodes h tbl : forall l b off x, In x (rnodesl (lay1 h tbl b off l)) -> b <= x < b + N.of_nat (iszs l).
Proof. intros l b off x. rewrite <- lay1_emb, <- iszs_emb. apply ParserFragF9First.lay1_nodes. Qed.

Section ItemsSpec.
Variable h : N.
Variable data : list N.
Variable len se : N.
Variable tbls : list (list N).
Let tbl := N.of_nat (length tbls) - 1.
Hypothesis Hlen : len = lenN data.
Hypothesis Hsmall : len < two32.
Hypothesis Hbytes : Forall (fun b => b < 256) data.

Definition ISpec (its : list item) : Prop :=
  forall fo fi off e t sc ss es g pl pre post a R (Q : pres -> pstate -> Prop),
  Rep t g pl -> g_free g = [] -> N.of_nat (length pl) + N.of_nat (iszs its) < InvalidIndex ->
  data = pre ++ enc_items its ++ post -> off = lenN pre -> lenN pre + lenN (enc_items its) <= e -> e <= len ->
  forallb item_okb its = true -> length ss = length es ->
  pget pl sc = Some a -> y_op a <> opFreed ->
  (8 <= R)%nat -> (icnts its + R <= fi)%nat -> (icnts its + R + 1 <= fo)%nat ->
  (forall t' g' pl' fo' fi', Rep t' g' pl' -> Post1 g pl g' pl' sc (lay1 h tbl (N.of_nat (length pl)) off its) ->
      (R <= fi')%nat -> (R + 1 <= fo')%nat ->
      wp False (list_cont fo' fi') (st1 h data len se tbls (off + lenN (enc_items its)) e t' (sc :: ss) (e :: es)) Q) ->
  wp False (list_cont fo fi) (st1 h data len se tbls off e t (sc :: ss) (e :: es)) Q.

Theorem ispec_all : forall its, ISpec its.
Proof.
  intros its. pose proof (ParserFragF9First.ispec_all h data len se tbls Hlen Hsmall Hbytes (map emb its)) as A.
  unfold ParserFragF9First.ISpec, Spec in A. rewrite enc_items_emb, iszs_emb, icnts_emb, items_okb_emb in A.
  intros fo fi off e t sc ss es g pl pre post a R Q H Hfree Hroom Hd Ho He Hel Hok Hbal Hsc Hlsc HR Hfi Hfo K.
  eapply (A fo fi off e t sc ss es g pl pre [] post); rewrite ?app_nil_r; try eassumption.
  intros t' g' pl' fo' fi' H' P'. rewrite lay1_emb in P'. apply (K t' g' pl'); assumption.
Qed.
End ItemsSpec.
