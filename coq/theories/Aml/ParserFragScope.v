(** C11 (fragment F3): Scope directives over the predefined scopes at the top level of the table.
    First pass and connectNamedObjArgs on a Scope block; the trees before ([tlay1], [tlay2]). *)
From Coq Require Import NArith ZArith Arith List Bool Lia.
From Coq Require Import ZifyBool ZifyN ZifyNat.
From FF Require Import Lib.Word Gen.Consts_device_acpi_aml Gen.Consts_aml_tree Aml.Stream Aml.Lex Aml.LexProofs
  Aml.Tree Aml.TreeSpec Aml.TreeProofs Aml.TreeProofsOps Aml.TreeProofsFind Aml.Parser Aml.Grammar Aml.LexRoundtrip
  Aml.ParserTotalTree Aml.ParserTotalBase
  Aml.ParserFragBase Aml.ParserFragFirst Aml.ParserFragF0 Aml.ParserFragConn Aml.ParserFragF0Conn Aml.ParserFragWalk
  Aml.ParserFragF0Top Aml.ParserFragRose Aml.ParserFragDev Aml.ParserFragF1 Aml.ParserFragF1First Aml.ParserFragF1Conn.
Import ListNotations.
Local Open Scope N_scope.

(** the name of a Scope directive: one segment, with or without the root prefix *)
Definition sc_name (root : bool) (seg : N) : namestr := mkName root 0 false [seg].
Definition sc_len (root : bool) : N := if root then 5 else 4.

Lemma enc_sc_name root seg : enc_name (sc_name root seg) = (if root then [0x5c] else []) ++ seg_bytes seg.
Proof.
  cbv [enc_name sc_name n_root n_carets n_segs n_multi]. change (lenN [seg]) with 1.
  change (N.to_nat 0) with 0%nat. change (2 <? 1) with false. change (1 =? 2) with false.
  cbn [repeat app orb flat_map]. rewrite app_nil_r. destruct root; reflexivity.
Qed.

Lemma lenN_sc_name root seg : lenN (enc_name (sc_name root seg)) = sc_len root.
Proof. rewrite enc_sc_name. destruct root; reflexivity. Qed.

Lemma wf_sc_name root seg : lead_okb (seg_lead seg) = true -> wf_name (sc_name root seg).
Proof.
  intros H. split; [cbn; lia|]. cbn [n_segs sc_name n_multi]. right. unfold lead_char. unfold lead_okb in H.
  apply orb_prop in H. destruct H as [H|H]; [left; apply andb_prop in H; destruct H; lia|right; lia].
Qed.

Lemma slice_sc_name root seg : name_slice_len (sc_name root seg) = sc_len root.
Proof. unfold name_slice_len. cbn [n_segs sc_name]. apply lenN_sc_name. Qed.

Lemma scope_facts : valid_opcode aml_pOpScope /\ aml_pOpScope <> aml_pOpNoop /\ aml_pOpScope <> opFreed /\
  is_prefix_op aml_pOpScope = false /\ opcodeTableIndex aml_pOpScope true = Some 9 /\
  opInfo 9 = Some (aml_pOpScope, 0, 67855) /\ hasFlag 0 aml_pOpFlagDeferParsing = false.
Proof.
  repeat split; try discriminate; try reflexivity. exists 9. split; [reflexivity|discriminate].
Qed.

Definition scp_pays (s : pstate) (off k : N) (root : bool) : list pay :=
  [mkPay aml_pOpScope 9 (p_handle s) name_zero off 0 None;
   path_pay s (off + 1 + k) (sc_len root);
   mkPay aml_pOpIntScopeBlock 113 (p_handle s) name_zero (off + 1 + k + sc_len root) 0 None].

(** the header of a Scope directive *)
Lemma next_scope f root s g pl pre k v seg rest post sc scs a :
  Rep (p_tree s) g pl -> g_free g = [] -> N.of_nat (length pl) + 2 < InvalidIndex ->
  at_token (p_r s) pre (enc_op aml_pOpScope ++ enc_pkglen k v ++ enc_name (sc_name root seg) ++ rest) post ->
  pkglen_admissible k v -> sc_len root + k <= v -> lenN pre + 1 + v <= r_len (p_r s) ->
  lead_okb (seg_lead seg) = true ->
  p_scopeStack s = sc :: scs -> pget pl sc = Some a -> y_op a <> opFreed -> p_allBlocks s = false ->
  wp False (parseNextObject (S (S (S (S (S (S f))))))) s (fun res s' => res = ROk /\ exists t',
    s' = after_block s (lenN pre + 1 + k + sc_len root) (lenN pre + 1 + v) t' /\
    Rep t' (g_block g sc) (pl ++ scp_pays s (lenN pre) k root)).
Proof.
  intros H Hfree Hroom Hat Hadm Hv4 Hend Hlead Est Hsc Hlsc Hab.
  destruct scope_facts as (Hvalid & Hnoop & Hnf & Hnp & Hidx & Hinfo & Hdefer).
  pose proof (rep_len_g _ _ _ H) as Hlg. pose proof (rep_len_pool _ _ _ H) as Hlp.
  assert (Hsclt : sc < N.of_nat (length pl)) by (eapply pget_lt; eauto).
  pose proof (lenN_sc_name root seg) as Hnl. set (nl := sc_len root) in *.
  assert (Hnl1 : 1 <= nl) by (unfold nl, sc_len; destruct root; clear; lia).
  eapply (next_head _ aml_pOpScope 9 s g pl pre _ post sc scs a);
    [exact H|exact Hfree|clear -Hroom; lia|exact Hat|exact Hvalid|exact Hnoop|exact Hnf|exact Hidx|exact Est|exact Hsc|exact Hlsc|].
  intros t1 H1. change (lenN (enc_op aml_pOpScope)) with 1.
  set (a1 := mkPay aml_pOpScope 9 (p_handle s) name_zero (lenN pre) 0 None) in *.
  set (pl1 := pl ++ [a1]) in *.
  assert (Hl1 : length pl1 = S (length pl)) by (unfold pl1; rewrite app_length; cbn [length]; clear; lia).
  assert (Hn : pget pl1 (N.of_nat (length pl)) = Some a1) by apply pget_app_last.
  eapply (objargs_other _ _ a1 (aml_pOpScope, 0, 67855) _ _ pl1); [exact H1|exact Hn|exact Hnf|exact Hnp|exact Hinfo|].
  rewrite parseArgs_S. change (argCount 67855) with 3. cbv zeta. change (3 =? 0) with false. change (3 <=? 0) with false. cbv iota.
  change (argType 67855 0) with aml_pArgTypePkgLen.
  pose proof (at_adv (p_r s) pre (enc_op aml_pOpScope) _ post Hat) as Hat1. change (lenN (enc_op aml_pOpScope)) with 1 in Hat1.
  apply wp_bind.
  eapply (arg_pkglen _ aml_pOpScope 0 67855 _ _ (pre ++ enc_op aml_pOpScope) k v (enc_name (sc_name root seg) ++ rest) post); [exact Hat1|exact Hadm| |exact Hab|exact Hdefer|].
  { rewrite lenN_app. change (lenN (enc_op aml_pOpScope)) with 1. exact Hend. }
  cbv beta iota. apply wp_bind. apply wp_ret. change (pres_eqb ROk ROk) with true. cbv iota. change (w8 (0 + 1)) with 1.
  rewrite lenN_app. change (lenN (enc_op aml_pOpScope)) with 1. set (e := lenN pre + 1 + v).
  rewrite parseArgs_S. change (argCount 67855) with 3. cbv zeta. change (3 =? 0) with false. change (3 <=? 1) with false. cbv iota.
  change (argType 67855 1) with aml_pArgTypeNameString. rewrite parseArg_NameString.
  destruct (at_token_facts _ _ _ _ Hat) as (Ooff & Eend & Wb & Wc).
  assert (Hlk : lenN (enc_pkglen k v) = k).
  { destruct Hadm as [(-> & _)|[(-> & _)|[(-> & _)|(-> & _)]]]; reflexivity. }
  pose proof (at_adv _ (pre ++ enc_op aml_pOpScope) (enc_pkglen k v) (enc_name (sc_name root seg) ++ rest) post Hat1) as A.
  rewrite Hlk, lenN_app in A. change (lenN (enc_op aml_pOpScope)) with 1 in A.
  set (pre2 := (pre ++ enc_op aml_pOpScope) ++ enc_pkglen k v) in *.
  assert (Hlpre2 : lenN pre2 = lenN pre + 1 + k).
  { unfold pre2. rewrite !lenN_app, Hlk. change (lenN (enc_op aml_pOpScope)) with 1. reflexivity. }
  assert (Hat2 : at_token (set_pkgEnd_raw (set_offset_raw (p_r s) (lenN pre + 1 + k)) e) pre2 (enc_name (sc_name root seg) ++ []) (rest ++ post)).
  { rewrite app_nil_r. destruct A as [D O E W]. constructor.
    - cbn [r_data set_pkgEnd_raw set_offset_raw] in D |- *. rewrite D, <- !app_assoc. reflexivity.
    - exact O.
    - cbn [r_pkgEnd set_pkgEnd_raw]. rewrite Hlpre2, Hnl. unfold e. clear -Hv4; lia.
    - destruct W as (W1 & W2 & W3 & W4). unfold reader_wf. cbn. repeat split; auto; unfold e; lia. }
  apply wp_bind.
  eapply (simpleArg_name (sc_name root seg) _ _ pl1 _ [] (rest ++ post)); [exact H1|apply free_g_head|clear -Hl1 Hroom; lia|exact Hat2|apply wf_sc_name; exact Hlead|rewrite slice_sc_name; exact Hnl1|].
  intros t2 H2. cbv beta iota.
  rewrite ?slice_sc_name, ?Hnl, ?Hlpre2 in H2. rewrite ?slice_sc_name, ?Hnl, ?Hlpre2. fold nl in H2 |- *.
  assert (Hlg1 : length (g_kids (gnew (g_head g sc))) = S (S (length pl))) by (rewrite len_gnew, len_g_head; clear -Hlg; lia).
  assert (Hkn : kids (g_head g sc) (N.of_nat (length pl)) = []).
  { rewrite kids_g_head by (clear -Hsclt Hlg; lia). destruct (N.eqb_spec (N.of_nat (length pl)) sc); [clear -e0 Hsclt; lia|]. apply kids_oob. clear -Hlg; lia. }
  apply wp_bind. eapply wp_append_rep; [exact H2| | | | |].
  { split; [rewrite Hlg1; clear; lia|cbn; tauto]. }
  { split; [rewrite Hlg1; clear -Hl1; lia|cbn; tauto]. }
  { replace (N.of_nat (length pl1)) with (N.of_nat (length (g_kids (g_head g sc)))) by (rewrite len_g_head; clear -Hl1 Hlg; lia).
    eapply groot_fresh. apply (rep_R _ _ _ H1). }
  { intros Hd. apply desc_leaf in Hd; [clear -Hd Hl1; lia|]. rewrite kids_gnew. apply kids_oob. rewrite len_g_head. clear -Hl1 Hlg; lia. }
  intros t3 H3. rewrite kids_gnew, Hkn in H3. cbn [app] in H3.
  change (pres_eqb ROk ROk) with true. cbv iota. change (w8 (1 + 1)) with 2.
  rewrite parseArgs_S. change (argCount 67855) with 3. cbv zeta. change (3 =? 0) with false. change (3 <=? 2) with false. cbv iota.
  change (argType 67855 2) with aml_pArgTypeTermList.
  set (g3 := set_kids (gnew (g_head g sc)) (N.of_nat (length pl)) [N.of_nat (length pl1)]) in *.
  set (pl2 := pl1 ++ [path_pay _ (lenN pre + 1 + k) nl]) in *.
  assert (Hl2 : length pl2 = S (S (length pl))) by (unfold pl2; rewrite app_length; cbn [length]; clear -Hl1; lia).
  apply wp_bind.
  eapply (arg_termlist _ _ _ _ g3 pl2); [exact H3|reflexivity|clear -Hl2 Hroom; lia|exact Hab|].
  intros t4 H4. cbv beta iota.
  assert (Hlg3 : length (g_kids (gnew g3)) = S (S (S (length pl)))) by (unfold g3; rewrite len_gnew, len_set_kids, Hlg1; reflexivity).
  assert (Hkn3 : kids (gnew g3) (N.of_nat (length pl)) = [N.of_nat (length pl1)]).
  { rewrite kids_gnew. unfold g3. rewrite kids_set_kids by (rewrite Hlg1; clear; lia). rewrite N.eqb_refl. reflexivity. }
  apply wp_bind. eapply wp_append_rep; [exact H4| | | | |].
  { split; [rewrite Hlg3; clear; lia|cbn; tauto]. }
  { split; [rewrite Hlg3; clear -Hl2; lia|cbn; tauto]. }
  { replace (N.of_nat (length pl2)) with (N.of_nat (length (g_kids g3))) by (unfold g3; rewrite len_set_kids, Hlg1; clear -Hl2; lia).
    eapply groot_fresh. apply (rep_R _ _ _ H3). }
  { intros Hd. apply desc_leaf in Hd; [clear -Hd Hl2; lia|]. rewrite kids_gnew. apply kids_oob. unfold g3. rewrite len_set_kids, Hlg1. clear -Hl2; lia. }
  intros t5 H5. rewrite Hkn3 in H5. cbn [app] in H5.
  change (pres_eqb RShort ROk) with false. cbv iota. apply wp_ret.
  split; [reflexivity|]. exists t5. split.
  - unfold after_block. rewrite <- Hlp. replace (N.of_nat (length pl) + 2) with (N.of_nat (length pl2)) by (clear -Hl2; lia). reflexivity.
  - unfold g_block. cbv zeta. rewrite Hlg.
    assert (E1 : N.of_nat (length pl1) = N.of_nat (length pl) + 1) by (clear -Hl1; lia).
    assert (E2 : N.of_nat (length pl2) = N.of_nat (length pl) + 2) by (clear -Hl2; lia).
    unfold g3 in H5. rewrite E1, E2 in H5.
    unfold scp_pays. fold nl. unfold pl2, pl1 in H5. rewrite <- !app_assoc in H5. cbn [app] in H5. exact H5.
Qed.

(** ---- top-level items ---- *)
Inductive titem : Type :=
| TItem (it : item)
| TScope (k : N) (root : bool) (d : N) (body : list item).

Definition dsegs : list N :=
  [0; seg4 95 71 80 69; seg4 95 80 82 95; seg4 95 83 66 95; seg4 95 83 73 95; seg4 95 84 90 95].
Definition dseg (d : N) : N := nth (N.to_nat d) dsegs 0.

Definition sc_body (root : bool) (d : N) (body : list item) : list N := enc_name (sc_name root (dseg d)) ++ enc_items body.

Definition enc_titem (x : titem) : list N :=
  match x with
  | TItem it => enc_item it
  | TScope k root d body => enc_op OP_SCOPE ++ enc_pkglen k (k + lenN (sc_body root d body)) ++ sc_body root d body
  end.
Definition enc_titems (l : list titem) : list N := flat_map enc_titem l.

Definition tsz (x : titem) : nat := match x with TItem it => isz it | TScope _ _ _ body => (3 + iszs body)%nat end.
Definition tszs (l : list titem) : nat := fold_right (fun x n => (tsz x + n)%nat) O l.
Definition tcnt (x : titem) : nat := match x with TItem it => icnt it | TScope _ _ _ body => (2 + icnts body)%nat end.
Definition tcnts (l : list titem) : nat := fold_right (fun x n => (tcnt x + n)%nat) O l.

Definition titem_okb (x : titem) : bool :=
  match x with
  | TItem it => item_okb it
  | TScope k root d body => (1 <=? d) && (d <=? 5) && pkglen_okb k (k + lenN (sc_body root d body)) && forallb item_okb body
  end.

Lemma dseg_lead d : 1 <= d <= 5 -> lead_okb (seg_lead (dseg d)) = true.
Proof.
  intros Hd. assert (Hc : d = 1 \/ d = 2 \/ d = 3 \/ d = 4 \/ d = 5) by lia.
  destruct Hc as [ -> | [ -> | [ -> | [ -> | -> ] ] ] ]; reflexivity.
Qed.

Section TLay.
Variable h tbl : N.

Definition scp_pay (off : N) : pay := mkPay aml_pOpScope 9 h name_zero off 0 None.
Definition pthn_pay (off nl : N) : pay := mkPay aml_pOpIntNamePath 118 h name_zero off 0 (Some (VBytes tbl (mkSlice (Some off) nl))).

Definition tlay1_item (b off : N) (x : titem) : list rose :=
  match x with
  | TItem it => lay1_item h tbl b off it
  | TScope k root d body =>
      [RN b (scp_pay off) [RN (b + 1) (pthn_pay (off + 1 + k) (sc_len root)) [];
                           RN (b + 2) (sb_pay h (off + 1 + k + sc_len root)) (lay1 h tbl (b + 3) (off + 1 + k + sc_len root) body)]]
  end.
Fixpoint tlay1 (b off : N) (l : list titem) : list rose :=
  match l with [] => [] | x :: t => tlay1_item b off x ++ tlay1 (b + N.of_nat (tsz x)) (off + lenN (enc_titem x)) t end.

Definition tlay2_item (b off : N) (x : titem) : list rose :=
  match x with
  | TItem it => lay2_item h tbl b off it
  | TScope k root d body =>
      [RN b (scp_pay off) [RN (b + 1) (pthn_pay (off + 1 + k) (sc_len root)) [];
                           RN (b + 2) (sb_pay h (off + 1 + k + sc_len root)) (lay2 h tbl (b + 3) (off + 1 + k + sc_len root) body)]]
  end.
Fixpoint tlay2 (b off : N) (l : list titem) : list rose :=
  match l with [] => [] | x :: t => tlay2_item b off x ++ tlay2 (b + N.of_nat (tsz x)) (off + lenN (enc_titem x)) t end.
End TLay.

Lemma lay1_single h tbl b off it : lay1 h tbl b off [it] = lay1_item h tbl b off it.
Proof. cbn [lay1]. apply app_nil_r. Qed.
Lemma lay2_single h tbl b off it : lay2 h tbl b off [it] = lay2_item h tbl b off it.
Proof. cbn [lay2]. apply app_nil_r. Qed.

Lemma tlay1_nodes h tbl : forall l b off x, In x (rnodesl (tlay1 h tbl b off l)) -> b <= x < b + N.of_nat (tszs l).
Proof.
  induction l as [|y t IH]; intros b off x Hx; [contradiction|].
  cbn [tlay1] in Hx. rewrite rnodesl_app in Hx. cbn [tszs fold_right]. fold (tszs t). apply in_app_or in Hx. destruct Hx as [Hx|Hx].
  - destruct y as [it|k root d body]; cbn [tlay1_item tsz] in *.
    + rewrite <- lay1_single in Hx. apply lay1_nodes in Hx. cbn [iszs fold_right] in Hx. lia.
    + unfold rnodesl in Hx. cbn [flat_map] in Hx. rewrite app_nil_r, rnodes_eq in Hx.
      destruct Hx as [<-|Hx]; [lia|]. unfold rnodesl in Hx. cbn [flat_map] in Hx. rewrite !rnodes_eq in Hx. cbn [rnodesl flat_map app] in Hx.
      destruct Hx as [<-|[<-|Hx]]; [lia|lia|]. rewrite app_nil_r in Hx. apply lay1_nodes in Hx. lia.
  - apply IH in Hx. lia.
Qed.

Lemma tlay2_nodes h tbl : forall l b off x, In x (rnodesl (tlay2 h tbl b off l)) -> b <= x < b + N.of_nat (tszs l).
Proof.
  induction l as [|y t IH]; intros b off x Hx; [contradiction|].
  cbn [tlay2] in Hx. rewrite rnodesl_app in Hx. cbn [tszs fold_right]. fold (tszs t). apply in_app_or in Hx. destruct Hx as [Hx|Hx].
  - destruct y as [it|k root d body]; cbn [tlay2_item tsz] in *.
    + rewrite <- lay2_single in Hx. apply lay2_nodes in Hx. cbn [iszs fold_right] in Hx. lia.
    + unfold rnodesl in Hx. cbn [flat_map] in Hx. rewrite app_nil_r, rnodes_eq in Hx.
      destruct Hx as [<-|Hx]; [lia|]. unfold rnodesl in Hx. cbn [flat_map] in Hx. rewrite !rnodes_eq in Hx. cbn [rnodesl flat_map app] in Hx.
      destruct Hx as [<-|[<-|Hx]]; [lia|lia|]. rewrite app_nil_r in Hx. apply lay2_nodes in Hx. lia.
  - apply IH in Hx. lia.
Qed.

Lemma tlay1_rsizes h tbl : forall l b off, rsizes (tlay1 h tbl b off l) = tszs l.
Proof.
  induction l as [|y t IH]; intros b off; [reflexivity|]. cbn [tlay1 tszs fold_right]. fold (tszs t). rewrite rsizes_app, IH. f_equal.
  destruct y as [it|k root d body]; cbn [tlay1_item tsz].
  - rewrite <- lay1_single, lay1_rsizes. cbn [iszs fold_right]. lia.
  - cbn [rsizes fold_right]. rewrite !rsize_eq. cbn [rsizes fold_right]. rewrite !rsize_eq.
    fold (rsizes (lay1 h tbl (b + 3) (off + 1 + k + sc_len root) body)). rewrite lay1_rsizes. cbn [rsizes fold_right]. lia.
Qed.

(** the block of a Scope directive after the first pass *)
Lemma post1_scope g pl sc g2 pl2 h tbl k root d body off :
  sc < N.of_nat (length pl) -> length (g_kids g) = length pl ->
  Post1 (g_block g sc) (pl ++ [scp_pay h off; pthn_pay h tbl (off + 1 + k) (sc_len root); sb_pay h (off + 1 + k + sc_len root)]) g2 pl2
        (N.of_nat (length pl) + 2) (lay1 h tbl (N.of_nat (length pl) + 3) (off + 1 + k + sc_len root) body) ->
  Post1 g pl g2 pl2 sc (tlay1_item h tbl (N.of_nat (length pl)) off (TScope k root d body)).
Proof.
  intros Hsc Hlg [A1 A2 A3 A4 A5 A6]. set (b := N.of_nat (length pl)) in *. set (nl := sc_len root) in *.
  set (pl1 := pl ++ [scp_pay h off; pthn_pay h tbl (off + 1 + k) nl; sb_pay h (off + 1 + k + nl)]) in *.
  assert (Hl1 : N.of_nat (length pl1) = b + 3) by (unfold pl1, b; rewrite app_length; cbn [length]; lia).
  assert (HK : forall i, kids (g_block g sc) i = if i =? b then [b + 1; b + 2] else if i =? sc then kids g sc ++ [b] else kids g i).
  { intros i. rewrite kids_g_block by (rewrite Hlg; exact Hsc). cbv zeta. rewrite Hlg. reflexivity. }
  assert (Hoob : forall i, b <= i -> kids g i = []) by (intros i Hi; apply kids_oob; rewrite Hlg; exact Hi).
  assert (Hp : forall c, c < 3 -> pget pl2 (b + c) = pget [scp_pay h off; pthn_pay h tbl (off + 1 + k) nl; sb_pay h (off + 1 + k + nl)] c).
  { intros c Hc. rewrite A6 by (clear -Hc Hl1; lia). unfold pl1, b. apply pget_app_new. }
  cbn [tlay1_item]. fold b nl. constructor.
  - exact A1.
  - rewrite A2. unfold pl1. rewrite app_length. cbn [length rsizes fold_right]. rewrite !rsize_eq. cbn [rsizes fold_right]. rewrite !rsize_eq.
    cbn [rsizes fold_right]. fold (rsizes (lay1 h tbl (b + 3) (off + 1 + k + nl) body)). clear; lia.
  - rewrite A5 by (clear -Hl1 Hsc; lia). rewrite HK. destruct (N.eqb_spec sc b); [clear -e Hsc; lia|]. rewrite N.eqb_refl. reflexivity.
  - constructor; [|constructor]. constructor.
    + rewrite <- (N.add_0_r b). rewrite (Hp 0) by (clear; lia). reflexivity.
    + rewrite A5 by (clear -Hl1; lia). rewrite HK, N.eqb_refl. reflexivity.
    + constructor; [|constructor; [|constructor]].
      * constructor; [rewrite (Hp 1) by (clear; lia); reflexivity| |constructor].
        rewrite A5 by (clear -Hl1; lia). rewrite HK. destruct (N.eqb_spec (b + 1) b); [clear -e; lia|]. destruct (N.eqb_spec (b + 1) sc); [clear -e Hsc; lia|]. apply Hoob. clear; lia.
      * constructor; [rewrite (Hp 2) by (clear; lia); reflexivity| |exact A4].
        rewrite A3. rewrite HK. destruct (N.eqb_spec (b + 2) b); [clear -e; lia|]. destruct (N.eqb_spec (b + 2) sc); [clear -e Hsc; lia|]. rewrite (Hoob (b + 2)) by (clear; lia). reflexivity.
  - intros x Hx Hne. rewrite A5 by (clear -Hx Hl1; lia). rewrite HK. destruct (N.eqb_spec x b); [clear -e Hx; lia|]. apply N.eqb_neq in Hne. rewrite Hne. reflexivity.
  - intros x Hx. rewrite A6 by (clear -Hx Hl1; lia). unfold pl1. apply pget_app_old. exact Hx.
Qed.

(** ---- the first pass over the top-level items ---- *)
Lemma tszs_cons x t : tszs (x :: t) = (tsz x + tszs t)%nat. Proof. reflexivity. Qed.
Lemma tcnts_cons x t : tcnts (x :: t) = (tcnt x + tcnts t)%nat. Proof. reflexivity. Qed.
Lemma enc_titems_cons x t : enc_titems (x :: t) = enc_titem x ++ enc_titems t. Proof. reflexivity. Qed.
Lemma tlay1_cons h tbl b off x t : tlay1 h tbl b off (x :: t) = tlay1_item h tbl b off x ++ tlay1 h tbl (b + N.of_nat (tsz x)) (off + lenN (enc_titem x)) t.
Proof. reflexivity. Qed.
Lemma tlay2_cons h tbl b off x t : tlay2 h tbl b off (x :: t) = tlay2_item h tbl b off x ++ tlay2 h tbl (b + N.of_nat (tsz x)) (off + lenN (enc_titem x)) t.
Proof. reflexivity. Qed.

Section TItemsSpec.
Variable h : N.
Variable data : list N.
Variable len se : N.
Variable tbls : list (list N).
Let tbl := N.of_nat (length tbls) - 1.
Hypothesis Hlen : len = lenN data.
Hypothesis Hsmall : len < two32.
Hypothesis Hbytes : Forall (fun b => b < 256) data.

(** [R]: the fuel the continuation still gets.  At least 8: beyond its count [tcnt] an item uses up to seven units of the
    loop's fuel (a Scope header: [next_scope] runs parseNextObject with six nested calls, one unit for the loop step), and
    the loop needs one more to see the end of the list. *)
Definition TISpec (ts : list titem) : Prop :=
  forall fo fi off e t sc ss es g pl pre post a R (Q : pres -> pstate -> Prop),
  Rep t g pl -> g_free g = [] -> N.of_nat (length pl) + N.of_nat (tszs ts) < InvalidIndex ->
  data = pre ++ enc_titems ts ++ post -> off = lenN pre -> lenN pre + lenN (enc_titems ts) <= e -> e <= len ->
  forallb titem_okb ts = true -> length ss = length es ->
  pget pl sc = Some a -> y_op a <> opFreed ->
  (8 <= R)%nat -> (tcnts ts + R <= fi)%nat -> (tcnts ts + R + 1 <= fo)%nat ->
  (forall t' g' pl' fo' fi', Rep t' g' pl' -> Post1 g pl g' pl' sc (tlay1 h tbl (N.of_nat (length pl)) off ts) ->
      (R <= fi')%nat -> (R + 1 <= fo')%nat ->
      wp False (list_cont fo' fi') (st1 h data len se tbls (off + lenN (enc_titems ts)) e t' (sc :: ss) (e :: es)) Q) ->
  wp False (list_cont fo fi) (st1 h data len se tbls off e t (sc :: ss) (e :: es)) Q.

Lemma tispec_nil : TISpec [].
Proof.
  intros fo fi off e t sc ss es g pl pre post a R Q H Hfree Hroom Hd Ho He Hel Hok Hbal Hsc Hlsc HR Hfi Hfo K.
  specialize (K t g pl fo fi H (Post1_nil g pl sc Hfree)). cbn [enc_titems flat_map] in K. change (lenN (@nil N)) with 0 in K.
  rewrite N.add_0_r in K. apply K; cbn [tcnts fold_right] in *; clear -Hfo Hfi; lia.
Qed.

Lemma tispec_item it rest : TISpec rest -> TISpec (TItem it :: rest).
Proof.
  intros IH fo fi off e t sc ss es g pl pre post a R Q H Hfree Hroom Hd Ho He Hel Hok Hbal Hsc Hlsc HR Hfi Hfo K.
  cbn [forallb titem_okb] in Hok. apply andb_prop in Hok. destruct Hok as [Hit Hok].
  rewrite tszs_cons in Hroom. rewrite tcnts_cons in Hfi, Hfo. cbn [tsz tcnt] in *.
  rewrite enc_titems_cons in Hd, He. cbn [enc_titem] in Hd, He. rewrite lenN_app in He.
  assert (Hsclt : sc < N.of_nat (length pl)) by (eapply pget_lt; eauto).
  eapply (ispec_all h data len se tbls Hlen Hsmall Hbytes [it] fo fi off e t sc ss es g pl pre (enc_titems rest ++ post) a (tcnts rest + R)%nat Q);
    [exact H|exact Hfree|cbn [iszs fold_right]; clear -Hroom; lia| |exact Ho| |exact Hel|cbn [forallb]; rewrite Hit; reflexivity|exact Hbal|exact Hsc|exact Hlsc|clear -HR; lia|cbn [icnts fold_right]; clear -Hfi; lia|cbn [icnts fold_right]; clear -Hfo; lia|].
  { rewrite Hd. cbn [enc_items flat_map]. rewrite app_nil_r, <- app_assoc. reflexivity. }
  { cbn [enc_items flat_map]. rewrite app_nil_r. clear -He; lia. }
  intros t1 g1 pl1 fo1 fi1 H1 P1 Hfi1 Hfo1. cbn [enc_items flat_map] in *. rewrite app_nil_r in *.
  assert (Hl1 : length pl1 = (length pl + isz it)%nat).
  { rewrite (p1_len _ _ _ _ _ _ P1), lay1_rsizes. cbn [iszs fold_right]. clear; lia. }
  eapply (IH fo1 fi1 (off + lenN (enc_item it)) e t1 sc ss es g1 pl1 (pre ++ enc_item it) post a R Q);
    [exact H1|apply (p1_free _ _ _ _ _ _ P1)|rewrite Hl1; clear -Hroom; lia| | | |exact Hel|exact Hok|exact Hbal| |exact Hlsc|exact HR|clear -Hfi1; lia|clear -Hfo1; lia|].
  { rewrite Hd, <- !app_assoc. reflexivity. }
  { rewrite lenN_app, Ho. reflexivity. }
  { rewrite lenN_app. clear -He; lia. }
  { rewrite (p1_old_p _ _ _ _ _ _ P1) by exact Hsclt. exact Hsc. }
  intros t2 g2 pl2 fo2 fi2 H2 P2 Hfi2 Hfo2.
  specialize (K t2 g2 pl2 fo2 fi2 H2). rewrite tlay1_cons in K. cbn [tlay1_item tsz enc_titem] in K.
  replace (N.of_nat (length pl) + N.of_nat (isz it)) with (N.of_nat (length pl1)) in K by (rewrite Hl1; clear; lia).
  rewrite enc_titems_cons, lenN_app in K. cbn [enc_titem] in K. rewrite N.add_assoc in K.
  apply K; [|exact Hfi2|exact Hfo2].
  eapply Post1_app; [exact Hsclt| | |exact P2].
  - intros x Hx. rewrite <- lay1_single in Hx. apply lay1_nodes in Hx. cbn [iszs fold_right] in Hx. rewrite Hl1. clear -Hx; lia.
  - rewrite <- lay1_single. exact P1.
Qed.

Lemma tispec_scope k root d body rest : TISpec rest -> TISpec (TScope k root d body :: rest).
Proof.
  intros IH fo fi off e t sc ss es g pl pre post a R Q H Hfree Hroom Hd Ho He Hel Hok Hbal Hsc Hlsc HR Hfi Hfo K.
  cbn [forallb titem_okb] in Hok. apply andb_prop in Hok. destruct Hok as [Hd_ok Hok].
  apply andb_prop in Hd_ok. destruct Hd_ok as [Hx Hbody_ok]. apply andb_prop in Hx. destruct Hx as [Hx Hpk].
  apply andb_prop in Hx. destruct Hx as [Hd1 Hd5]. apply N.leb_le in Hd1. apply N.leb_le in Hd5. apply pkglen_okb_adm in Hpk.
  pose proof (dseg_lead d (conj Hd1 Hd5)) as Hlead.
  rewrite tszs_cons in Hroom. rewrite tcnts_cons in Hfi, Hfo. cbn [tsz tcnt] in *.
  rewrite enc_titems_cons in Hd, He. cbn [enc_titem] in Hd, He. subst off.
  set (nl := sc_len root) in *. set (seg := dseg d) in *.
  unfold sc_body in *. fold seg in Hd, He, Hpk |- *.
  set (v := k + lenN (enc_name (sc_name root seg) ++ enc_items body)) in *.
  assert (Hv : v = k + nl + lenN (enc_items body)) by (unfold v; rewrite lenN_app, lenN_sc_name; unfold nl; clear; lia).
  pose proof (lenN_enc_pkglen k v Hpk) as Hlk.
  pose proof (rep_len_g _ _ _ H) as Hlg. pose proof (rep_len_pool _ _ _ H) as Hlp.
  assert (Hsclt : sc < N.of_nat (length pl)) by (eapply pget_lt; eauto).
  assert (Hnl : 4 <= nl <= 5) by (unfold nl, sc_len; destruct root; clear; lia).
  assert (Ef : exists f', fi = S (S (S (S (S (S (S f'))))))) by (exists (fi - 7)%nat; clear -Hfi Hfo HR; lia). destruct Ef as (f' & ->).
  set (s0 := st1 h data len se tbls (lenN pre) e t (sc :: ss) (e :: es)).
  assert (HlenI : lenN (enc_op OP_SCOPE ++ enc_pkglen k v ++ enc_name (sc_name root seg) ++ enc_items body) = 1 + v).
  { rewrite !lenN_app, Hlk, lenN_sc_name. change (lenN (enc_op OP_SCOPE)) with 1. fold nl. clear -Hv Hnl; lia. }
  rewrite lenN_app, HlenI in He.
  assert (Hat0 : at_token (p_r s0) pre (enc_op aml_pOpScope ++ enc_pkglen k v ++ enc_name (sc_name root seg) ++ (enc_items body ++ enc_titems rest)) post).
  { apply mk_at; [ |reflexivity| |exact Hel|exact Hlen|exact Hsmall|exact Hbytes].
    - rewrite Hd. change aml_pOpScope with OP_SCOPE. rewrite <- !app_assoc. reflexivity.
    - rewrite !lenN_app, Hlk, lenN_sc_name. change (lenN (enc_op aml_pOpScope)) with 1. fold nl. clear -Hv Hnl He Hlk HlenI; lia. }
  apply wp_list_cont_S. unfold eofM, rq. apply wp_bind, wp_get.
  assert (Hne : eof (p_r s0) = false).
  { change (enc_op aml_pOpScope) with [0x10] in Hat0. cbn [app] in Hat0. apply (at_not_eof _ _ _ _ _ Hat0). }
  rewrite Hne.
  apply wp_bind. eapply wp_conseq.
  { eapply (next_scope _ root s0 g pl pre k v seg _ post sc ss a);
      [exact H|exact Hfree|clear -Hroom Hlp Hlg Hsclt; lia|exact Hat0|exact Hpk|fold nl; clear -Hv Hnl; lia| |exact Hlead|reflexivity|exact Hsc|exact Hlsc|reflexivity].
    cbn [s0 st1 p_r r_len]. clear -Hel He; lia. }
  intros res s1 (-> & t1 & -> & H1). change (pres_eqb ROk ROk) with true. cbv iota. fold nl in H1 |- *.
  set (b := N.of_nat (length pl)) in *.
  set (off1 := lenN pre + 1 + k + nl). set (e1 := lenN pre + 1 + v).
  set (pl1 := pl ++ scp_pays s0 (lenN pre) k root) in *.
  assert (Hpl1 : pl1 = pl ++ [scp_pay h (lenN pre); pthn_pay h tbl (lenN pre + 1 + k) nl; sb_pay h (lenN pre + 1 + k + nl)]) by reflexivity.
  assert (Hl1 : length pl1 = S (S (S (length pl)))) by (rewrite Hpl1, app_length; cbn [length]; clear; lia).
  set (s1 := st1 h data len se tbls off1 e1 t1 (b + 2 :: sc :: ss) (e1 :: e :: es)).
  assert (Es1 : after_block s0 off1 e1 t1 = s1).
  { unfold after_block, s1, s0, st1. scbn. unfold set_pkgEnd_raw, set_offset_raw. cbn [r_data r_len r_offset r_pkgEnd p_r p_tree]. rewrite <- Hlp. reflexivity. }
  rewrite Es1.
  set (pre1 := pre ++ enc_op OP_SCOPE ++ enc_pkglen k v ++ enc_name (sc_name root seg)).
  assert (Hlp1 : lenN pre1 = off1).
  { unfold pre1, off1. rewrite !lenN_app, Hlk, lenN_sc_name. change (lenN (enc_op OP_SCOPE)) with 1. fold nl. clear; lia. }
  assert (Hsb1 : pget pl1 (b + 2) = Some (sb_pay h (lenN pre + 1 + k + nl))).
  { rewrite Hpl1. unfold b. rewrite pget_app_new. reflexivity. }
  eapply (ispec_all h data len se tbls Hlen Hsmall Hbytes body fo _ off1 e1 t1 (b + 2) (sc :: ss) (e :: es) _ pl1 pre1 (enc_titems rest ++ post) _ (tcnts rest + R + 1)%nat Q);
    [exact H1|reflexivity|rewrite Hl1; clear -Hroom Hlp Hlg Hsclt; lia| |symmetry; exact Hlp1| | |exact Hbody_ok|cbn [length]; rewrite Hbal; reflexivity|exact Hsb1|discriminate|clear -Hfi Hfo HR; lia|clear -Hfi Hfo HR; lia|clear -Hfi Hfo HR; lia|].
  { unfold pre1. rewrite Hd. rewrite <- !app_assoc. reflexivity. }
  { rewrite Hlp1. unfold off1, e1. clear -Hv Hnl; lia. }
  { unfold e1. clear -Hel He; lia. }
  intros t2 g2 pl2 fo2 fi2 H2 P2 Hfi2 Hfo2.
  destruct fi2 as [|fi2']; [clear -Hfi2; lia|]. apply wp_list_cont_S. unfold eofM, rq. apply wp_bind, wp_get.
  assert (Eeof : eof (p_r (st1 h data len se tbls (off1 + lenN (enc_items body)) e1 t2 (b + 2 :: sc :: ss) (e1 :: e :: es))) = true).
  { unfold eof. cbn [st1 p_r r_pkgEnd r_offset]. apply N.leb_le. unfold e1, off1. clear -Hv Hnl; lia. }
  rewrite Eeof.
  destruct fo2 as [|fo2']; [clear -Hfo2; lia|].
  apply wp_list_end; [exact Hbal|exact Hel|].
  set (pre2 := pre1 ++ enc_items body).
  assert (Hlp2 : lenN pre2 = off1 + lenN (enc_items body)) by (unfold pre2; rewrite lenN_app, Hlp1; reflexivity).
  assert (Hl2 : length pl2 = (length pl + 3 + iszs body)%nat).
  { rewrite (p1_len _ _ _ _ _ _ P2), Hl1, lay1_rsizes. clear; lia. }
  assert (P02 : Post1 g pl g2 pl2 sc (tlay1_item h tbl b (lenN pre) (TScope k root d body))).
  { apply post1_scope; [exact Hsclt|exact Hlg|]. fold nl. rewrite <- Hpl1. fold b.
    replace (b + 3) with (N.of_nat (length pl1)) by (clear -Hl1; lia). exact P2. }
  assert (Hsc2 : pget pl2 sc = Some a).
  { rewrite (p1_old_p _ _ _ _ _ _ P02) by exact Hsclt. exact Hsc. }
  eapply (IH fo2' _ (off1 + lenN (enc_items body)) e t2 sc ss es g2 pl2 pre2 post a R Q);
    [exact H2|apply (p1_free _ _ _ _ _ _ P2)|rewrite Hl2; clear -Hroom Hlp Hlg Hsclt; lia| |symmetry; exact Hlp2| |exact Hel|exact Hok|exact Hbal|exact Hsc2|exact Hlsc|exact HR|clear -Hfo2; lia|clear -Hfo2; lia|].
  { unfold pre2, pre1. rewrite Hd. rewrite <- !app_assoc. reflexivity. }
  { rewrite Hlp2. unfold off1. clear -Hv Hnl He Hlk HlenI; lia. }
  intros t3 g3 pl3 fo3 fi3 H3 P3 Hfi3 Hfo3.
  specialize (K t3 g3 pl3 fo3 fi3 H3).
  rewrite tlay1_cons in K. cbn [tsz] in K. fold b in K.
  replace (b + N.of_nat (3 + iszs body)) with (N.of_nat (length pl2)) in K by (rewrite Hl2; unfold b; clear; lia).
  rewrite enc_titems_cons, lenN_app in K. cbn [enc_titem] in K. unfold sc_body in K. fold seg in K. fold v in K. rewrite HlenI in K.
  replace (lenN pre + (1 + v)) with (off1 + lenN (enc_items body)) in K by (unfold off1; clear -Hv Hnl; lia).
  replace (lenN pre + (1 + v + lenN (enc_titems rest))) with (off1 + lenN (enc_items body) + lenN (enc_titems rest)) in K by (unfold off1; clear -Hv Hnl; lia).
  apply K; [|exact Hfi3|exact Hfo3].
  eapply Post1_app; [exact Hsclt| |exact P02|exact P3].
  intros x Hx. change (tlay1_item h tbl b (lenN pre) (TScope k root d body)) with (tlay1 h tbl b (lenN pre) [TScope k root d body] ++ []) in Hx.
  rewrite app_nil_r in Hx. apply tlay1_nodes in Hx. cbn [tszs fold_right tsz] in Hx. rewrite Hl2. unfold b in *. clear -Hx; lia.
Qed.

Theorem tispec_all : forall ts, TISpec ts.
Proof.
  induction ts as [|[it|k root d body] rest IH].
  - apply tispec_nil.
  - apply tispec_item. exact IH.
  - apply tispec_scope. exact IH.
Qed.
End TItemsSpec.
