(** Every pass of ParseAML leaves the table handle of the parser alone and creates objects with that handle
    only; the handle of an existing slot never changes.  So "every handle in the pool is at most the handle of the table being
    parsed" ([HB]) is preserved - a partial-correctness fact: an instance of [first_pass_runs] for the first and the deferred
    pass, by structural decomposition for the others. *)
From Coq Require Import NArith Arith List Bool Lia.
From FF Require Import Lib.Word Gen.Consts_device_acpi_aml Aml.Stream Aml.Lex Aml.Tree Aml.Parser Aml.TreeSpec Aml.TreeProofs
  Aml.ParserTotalTree Aml.ParserTotalTree2 Aml.ParserTotalRuns Aml.ParserTotalBase Aml.ParserTotalLeaf Aml.ParserTotalFrame
  Aml.ParserTotalCalls Aml.ParserTotalDeferM Aml.ParserTotalTyped.
Import ListNotations.
Local Open Scope N_scope.

Definition HB (h : N) (t : T) : Prop := forall i o, tget t i = Some o -> o_tableHandle o <= h.

Definition hb {A} (m : M A) : Prop :=
  forall s a s', m s = Ok (a, s') -> HB (p_handle s) (p_tree s) -> p_handle s' = p_handle s /\ HB (p_handle s) (p_tree s').

Lemma HB_pframe h (t t' : T) : HB h t -> pframe t t' -> HB h t'.
Proof. intros H Hp i o' Hg. destruct (pframe_inv _ _ _ _ Hp Hg) as (o & Ho & _ & _ & E3 & _). rewrite E3. apply (H i o Ho). Qed.
Lemma HB_tset h (t : T) p f : HB h t -> (forall o, o_tableHandle (f o) = o_tableHandle o) -> HB h (tset t p f).
Proof.
  intros H Hf i o' Hg. rewrite get_tset in Hg. destruct (N.eqb_spec i p) as [->|Hne]; [|apply (H i o' Hg)].
  destruct (tget t p) as [o|] eqn:E; cbn [option_map] in Hg; [|discriminate]. inversion Hg; subst o'. rewrite Hf. apply (H p o E).
Qed.

Lemma hb_steps : steps (fun s s' => HB (p_handle s) (p_tree s) -> p_handle s' = p_handle s /\ HB (p_handle s) (p_tree s')) (fun _ => True).
Proof.
  assert (Hnew : forall s opc t p, newObject (p_tree s) opc (p_handle s) = Ok (t, p) -> HB (p_handle s) (p_tree s) -> HB (p_handle s) t).
  { intros s opc t p E Hb i o Hg. destruct (newObject_shape _ _ _ _ _ E) as ((po & Hpo & _ & _ & Hh & _) & _ & Hbw & _).
    destruct (N.eq_dec i p) as [->|Hip]; [assert (o = po) by congruence; subst o; rewrite Hh; apply N.le_refl|apply (Hb i o (Hbw i o Hip Hg))]. }
  constructor; try (intros; exact I).
  - intros s Hb. split; [reflexivity|exact Hb].
  - intros s1 s2 s3 A B Hb. destruct (A Hb) as (A1 & A2). rewrite <- A1 in A2. destruct (B A2) as (B1 & B2). rewrite A1 in B1, B2. auto.
  - intros s s' (Qt & Qh & _) Hb. rewrite Qt. auto.
  - intros s opc t p _ E Hb. split; [reflexivity|exact (Hnew _ _ _ _ E Hb)].
  - intros s p f t Hf E Hb. split; [reflexivity|]. destruct (wr_inv _ _ _ _ E) as (-> & _). apply HB_tset; [exact Hb|apply Hf].
  - intros s p op t _ E Hb. split; [reflexivity|]. destruct (wr_inv _ _ _ _ E) as (-> & _). apply HB_tset; [exact Hb|reflexivity].
  - intros s t Hp Hb. split; [reflexivity|exact (HB_pframe _ _ _ Hb Hp)].
Qed.

Lemma hb_bind {A B} (m : M A) (f : A -> M B) : hb m -> (forall a, hb (f a)) -> hb (bindM m f).
Proof. exact (runs_bind _ (st_trans _ _ hb_steps) m f). Qed.
Lemma hb_if {A} (b : bool) (m1 m2 : M A) : hb m1 -> hb m2 -> hb (if b then m1 else m2).
Proof. destruct b; auto. Qed.
Lemma hb_inert {A} (m : M A) : runs inert m -> hb m.
Proof. apply runs_weaken. exact (st_inert _ _ hb_steps). Qed.
Lemma hb_upd (f : pstate -> pstate) : (forall s, p_handle (f s) = p_handle s /\ p_tree (f s) = p_tree s) -> hb (fun s => Ok (tt, f s)).
Proof. intros Hf. apply runs_step. intros s Hb. destruct (Hf s) as (-> & ->). auto. Qed.

Lemma free_HB h (t t' : T) x : free t x = Ok t' -> HB h t -> HB h t'.
Proof.
  unfold free. intros H Ht.
  apply bind_ok in H. destruct H as (par & _ & H).
  apply bind_ok in H. destruct H as (t1 & Ht1 & H).
  assert (T1 : HB h t1).
  { destruct (negb (par =? InvalidIndex)).
    - apply bind_ok in Ht1. destruct Ht1 as (pp & _ & Hd). eapply HB_pframe; [exact Ht|eapply detach_pframe; eauto].
    - inversion Ht1; subst. exact Ht. }
  apply bind_ok in H. destruct H as (first & _ & H).
  apply bind_ok in H. destruct H as (lst & _ & H).
  destruct (negb (first =? InvalidIndex) || negb (lst =? InvalidIndex)); [discriminate|].
  apply bind_ok in H. destruct H as (t2 & Ht2 & H). destruct (wr_inv _ _ _ _ Ht2) as (-> & o1 & Ho1).
  apply bind_ok in H. destruct H as (t3 & Ht3 & H). destruct (wr_inv _ _ _ _ Ht3) as (-> & _).
  apply bind_ok in H. destruct H as (oi & _ & H). inversion H; subst t'. clear H.
  intros i o Hg. change (tget (tset (tset t1 x (set_opcode opFreed)) x (set_next (t_free (tset t1 x (set_opcode opFreed))))) i = Some o) in Hg.
  revert i o Hg. apply HB_tset; [apply HB_tset; [exact T1|]|]; intros o; reflexivity.
Qed.
Lemma hb_freeM x : hb (freeM x).
Proof. apply runs_step. intros s. unfold freeM, tu. destruct (free (p_tree s) x) as [t| |] eqn:E; [|exact I|exact I]. intros Hb. split; [reflexivity|exact (free_HB _ _ _ x E Hb)]. Qed.

Ltac hb_tac call :=
  repeat lazymatch goal with
  | |- hb (bindM _ _) => apply hb_bind; [|intros ?]
  | |- hb (match ?x with _ => _ end) => first [apply hb_if | destruct x]
  | |- hb (wrf _ (set_opcode _)) => apply (runs_wrf_opcode _ _ hb_steps); exact I
  | |- hb (wrf _ _) => apply (runs_wrf _ _ hb_steps); let o := fresh "o" in intros o; split; reflexivity
  | |- hb (freeM _) => apply hb_freeM
  | |- hb (tu (fun t => append t _ _)) => apply (runs_link _ _ hb_steps); intros ? ?; apply append_pframe
  | |- hb (tu (fun t => appendAfter t _ _ _)) => apply (runs_link _ _ hb_steps); intros ? ?; apply appendAfter_pframe
  | |- hb (tu (fun t => detach t _ _)) => apply (runs_link _ _ hb_steps); intros ? ?; apply detach_pframe
  | |- hb _ => first [ call | (apply hb_inert; inert_prim) | (apply hb_upd; intros; split; reflexivity) ]
  end.

Ltac hb_out := apply runs_outOfFuel.

Lemma parseObjectArgs_hb fuel c : hb (parseObjectArgs fuel c).
Proof. apply (first_pass_runs _ _ hb_steps (fun s t p _ => st_new _ _ hb_steps s _ t p I) (fun _ _ _ _ => I) fuel). Qed.
Lemma parseObjectList_hb fuel : hb (parseObjectList fuel).
Proof. exact (parseObjectList_runs _ _ hb_steps (fun s t p _ => st_new _ _ hb_steps s _ t p I) (fun _ _ _ _ => I) fuel). Qed.
Lemma popAll_go_hb fuel : hb (popAll_go fuel).
Proof. exact (popAll_go_runs _ _ hb_steps fuel). Qed.

(** pass 2 *)
Lemma attachSiblings_go_hb fuel : forall par tgt sib n up, hb (attachSiblings_go fuel par tgt sib n up).
Proof.
  induction fuel as [|fuel IH]; intros; cbn [attachSiblings_go]; [hb_out|].
  parser_unf. hb_tac ltac:(apply IH).
Qed.
Lemma attachSiblingsAsArgs_hb fuel par tgt n up : hb (attachSiblingsAsArgs fuel par tgt n up).
Proof. unfold attachSiblingsAsArgs. parser_unf. hb_tac ltac:(apply attachSiblings_go_hb). Qed.

Lemma connectNamed_hb fuel : (forall i, hb (connectNamedObjArgs fuel i)) /\ (forall o i, hb (connectNamed_loop fuel o i)).
Proof.
  induction fuel as [|fuel (IH1 & IH2)]; (split; intros; [cbn [connectNamedObjArgs]|cbn [connectNamed_loop]]); try hb_out.
  - parser_unf. hb_tac ltac:(apply IH2).
  - unfold valueBytes. parser_unf. hb_tac ltac:(first [apply IH1 | apply IH2 | apply attachSiblingsAsArgs_hb]).
Qed.

(** pass 3 *)
Lemma nestedScope_go_hb fuel : forall i, hb (nestedScope_go fuel i).
Proof. induction fuel as [|fuel IH]; intros; cbn [nestedScope_go]; [hb_out|]. parser_unf. hb_tac ltac:(apply IH). Qed.
Lemma scopeOf_hb i : hb (scopeOf i).
Proof. unfold scopeOf. parser_unf. hb_tac ltac:(apply nestedScope_go_hb). Qed.
Lemma moveContents_go_hb fuel : forall c t i, hb (moveContents_go fuel c t i).
Proof. induction fuel as [|fuel IH]; intros; cbn [moveContents_go]; [hb_out|]. parser_unf. hb_tac ltac:(apply IH). Qed.
Lemma insideSelf_go_hb fuel : forall a o, hb (insideSelf_go fuel a o).
Proof. induction fuel as [|fuel IH]; intros; cbn [insideSelf_go]; [hb_out|]. parser_unf. hb_tac ltac:(apply IH). Qed.

Lemma merge_hb fuel : (forall i, hb (mergeScopeDirectives fuel i)) /\ (forall i r, hb (mergeScope_loop fuel i r)).
Proof.
  induction fuel as [|fuel (IH1 & IH2)]; (split; intros; [cbn [mergeScopeDirectives]|cbn [mergeScope_loop]]); try hb_out.
  - parser_unf. hb_tac ltac:(first [apply IH2 | apply scopeOf_hb | apply moveContents_go_hb]).
  - parser_unf. hb_tac ltac:(first [apply IH1 | apply IH2]).
Qed.
Lemma relocate_hb fuel : (forall i, hb (relocateNamedObjects fuel i)) /\ (forall i r, hb (relocate_loop fuel i r)).
Proof.
  induction fuel as [|fuel (IH1 & IH2)]; (split; intros; [cbn [relocateNamedObjects]|cbn [relocate_loop]]); try hb_out.
  - unfold valueBytes. parser_unf. hb_tac ltac:(first [apply IH2 | apply scopeOf_hb | apply insideSelf_go_hb]).
  - parser_unf. hb_tac ltac:(first [apply IH1 | apply IH2]).
Qed.
Lemma resolve_loop_hb wf : forall fuel, hb (resolve_loop fuel wf).
Proof.
  induction fuel as [|fuel IH]; cbn [resolve_loop]; [hb_out|].
  hb_tac ltac:(first [apply IH | apply (proj1 (merge_hb wf)) | apply (proj1 (relocate_hb wf))]).
Qed.

(** pass 4 *)
Lemma deferred_hb fuel pf : (forall i, hb (parseDeferredBlocks fuel pf i)) /\ (forall i, hb (deferred_loop fuel pf i)).
Proof.
  induction fuel as [|fuel (IH1 & IH2)]; (split; intros; [cbn [parseDeferredBlocks]|cbn [deferred_loop]]); try hb_out.
  - parser_unf. hb_tac ltac:(first [apply IH2 | apply parseObjectArgs_hb | apply popAll_go_hb]).
  - parser_unf. hb_tac ltac:(first [apply IH1 | apply IH2]).
Qed.

(** passes 5 and 6 *)
Lemma connectNonNamedObjArg_hb fuel obj arg : hb (connectNonNamedObjArg fuel obj arg).
Proof. unfold connectNonNamedObjArg. parser_unf. hb_tac ltac:(apply attachSiblingsAsArgs_hb). Qed.
Lemma nonNamed_hb fuel : (forall i, hb (connectNonNamedObjArgs fuel i)) /\ (forall o i, hb (connectNonNamed_loop fuel o i)).
Proof.
  induction fuel as [|fuel (IH1 & IH2)]; (split; intros; [cbn [connectNonNamedObjArgs]|cbn [connectNonNamed_loop]]); try hb_out.
  - parser_unf. hb_tac ltac:(apply IH2).
  - parser_unf. hb_tac ltac:(first [apply IH1 | apply IH2 | apply connectNonNamedObjArg_hb]).
Qed.
Lemma calls_hb fuel : (forall i, hb (resolveMethodCalls fuel i)) /\ (forall o i, hb (resolveCalls_loop fuel o i)).
Proof.
  induction fuel as [|fuel (IH1 & IH2)]; (split; intros; [cbn [resolveMethodCalls]|cbn [resolveCalls_loop]]); try hb_out.
  - parser_unf. hb_tac ltac:(apply IH2).
  - parser_unf. hb_tac ltac:(first [apply IH1 | apply IH2 | apply connectNonNamedObjArg_hb | apply attachSiblingsAsArgs_hb]).
Qed.

(** ---- ParseAML ---- *)
Theorem parseAML_body_hb fuel : hb (parseAML_body fuel).
Proof.
  unfold parseAML_body.
  hb_tac ltac:(first [ apply parseObjectList_hb | apply (proj1 (connectNamed_hb fuel)) | apply resolve_loop_hb
                     | apply (proj1 (deferred_hb fuel fuel)) | apply (proj1 (calls_hb fuel)) | apply (proj1 (nonNamed_hb fuel)) ]).
Qed.

(** every handle of the pool a successful ParseAML returns is at most the handle of the table, if that held before *)
Theorem parseAML_handles : forall tree earlier h data b s',
  (forall i o, tget tree i = Some o -> o_tableHandle o <= h) ->
  parseAML tree earlier h data = Ok (b, s') ->
  forall i o, tget (p_tree s') i = Some o -> o_tableHandle o <= h.
Proof.
  intros tree earlier h data b s' Hb E. unfold parseAML in E.
  destruct (parseAML_body_hb _ _ _ _ E) as (_ & H); [exact Hb|exact H].
Qed.
