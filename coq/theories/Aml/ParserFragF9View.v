(** C11 (fragments F1 .. F9): the namespace view of the final tree [root_tree5] lists, for every block, the entries of
    its body and then the block itself; Name declarations as in F0; the statements of a Method body inside the Method's
    entry, those of any other scope as anonymous entries. *)
From Coq Require Import NArith ZArith Arith List Bool Lia Permutation.
From Coq Require Import ZifyBool ZifyN ZifyNat.
From FF Require Import Lib.Word Gen.Consts_device_acpi_aml Gen.Consts_aml_tree Aml.Stream Aml.Lex
  Aml.Tree Aml.TreeSpec Aml.TreeProofs Aml.Parser Aml.Grammar Aml.LexRoundtrip
  Aml.ParserTotalBase Aml.ParserFragBase Aml.ParserFragFirst Aml.ParserFragF0 Aml.ParserFragF0Conn Aml.ParserFragF0Top
  Aml.ParserFragRose Aml.ParserFragDev Aml.ParserFragArgs Aml.ParserFragF9 Aml.ParserFragF9First Aml.ParserFragF9Conn Aml.ParserFragF9Top Aml.ParserFragF9Calls Aml.ParserFragF9Parse
  Aml.View Aml.ParserFragView.
Import ListNotations.
Local Open Scope N_scope.

Definition name_entry (p : path) (d : decl) : list N :=
  [1] ++ tok_path (p ++ [d_seg d]) ++ [aml_pOpName] ++ const_tokens (d_op d) (const_val (d_op d) (d_v d)).
Definition blk_entry (p : path) (bk : bkind) (l : fxs) : list N :=
  [1] ++ tok_path p ++ [bk_op bk] ++ flat_map (fun '(w, v) => tok_const (fw_op w) v) l.
Definition cst_tokens (d : decl) : list N := const_tokens (d_op d) (const_val (d_op d) (d_v d)).
Definition targ_tokens (a : targ) : list N := match a with TInt d => cst_tokens d | TStr b => tok_bytes OP_STRING b end.
Definition leaf_entry (p : path) (lk : lkind) (l : fxs) (ta : list targ) : list N :=
  [1] ++ tok_path p ++ [lk_op lk] ++ flat_map (fun '(w, v) => tok_const (fw_op w) v) l ++ flat_map targ_tokens ta.
Fixpoint pel_tokens (e : pel) : list N :=
  match e with
  | PLeaf a => targ_tokens a
  | PSub _ n es => [OP_PACKAGE; 0; 1 + lenN es] ++ tok_const OP_BYTE n ++ flat_map pel_tokens es
  end.
Definition pkg_entry (p : path) (n : N) (elems : list pel) : list N :=
  [1] ++ tok_path p ++ [aml_pOpName] ++ [OP_PACKAGE; 0; 1 + lenN elems] ++ tok_const OP_BYTE n ++ flat_map pel_tokens elems.
Definition dev_entry (p : path) : list N := blk_entry p BDev [].
Definition meth_entry (p : path) (fl : N) : list N := blk_entry p BMeth [(W1, fl)].

(** the rendering of a statement; the statements of a Method body are part of the Method's entry, those of any
    other scope are anonymous entries of that scope *)
Definition stmt_tokens (sk : skind) (ta : list targ) : list N := [sk_op sk; 0; lenN ta] ++ flat_map targ_tokens ta.
Definition stmt_of (it : item) : list (list N) := match it with IStmt sk ta => [stmt_tokens sk ta] | _ => [] end.
Definition vstmts (l : list item) : list (list N) := flat_map stmt_of l.

(** the view lists the body of a block before the block *)
Fixpoint ventry (p : path) (it : item) : list (list N) :=
  match it with
  | IName d => [name_entry p d]
  | IBlk bk _ seg fa body =>
      flat_map (ventry (p ++ [seg])) body ++ (if bk_op bk =? aml_pOpMethod then [] else anon (p ++ [seg]) (flat_map stmt_of body)) ++
      [blk_entry (p ++ [seg]) bk (bfx bk fa) ++ (if bk_op bk =? aml_pOpMethod then concat (flat_map stmt_of body) else [])]
  | ILeaf lk seg fa ta => [leaf_entry (p ++ [seg]) lk (lfx lk fa) ta]
  | IPkg seg _ n elems => [pkg_entry (p ++ [seg]) n elems]
  | IStmt _ _ => []
  end.
Definition ventries (p : path) (l : list item) : list (list N) := flat_map (ventry p) l.

(** the specification lists the block first; [inm]: the enclosing scope is a Method body (its statements are part of the
    Method's entry), otherwise a statement is an anonymous entry of the scope *)
Fixpoint sentry (inm : bool) (p : path) (it : item) : list (list N) :=
  match it with
  | IName d => [name_entry p d]
  | IBlk bk _ seg fa body =>
      (blk_entry (p ++ [seg]) bk (bfx bk fa) ++ (if bk_op bk =? aml_pOpMethod then concat (flat_map stmt_of body) else [])) ::
      flat_map (sentry (bk_op bk =? aml_pOpMethod) (p ++ [seg])) body
  | ILeaf lk seg fa ta => [leaf_entry (p ++ [seg]) lk (lfx lk fa) ta]
  | IPkg seg _ n elems => [pkg_entry (p ++ [seg]) n elems]
  | IStmt sk ta => if inm then [] else [[2] ++ tok_path p ++ stmt_tokens sk ta]
  end.
Definition sentries (inm : bool) (p : path) (l : list item) : list (list N) := flat_map (sentry inm p) l.

Lemma ventries_perm : forall l p,
  Permutation (ventries p l ++ anon p (vstmts l)) (sentries false p l) /\ Permutation (ventries p l) (sentries true p l).
Proof.
  induction l as [|d rest IH|bk k seg fa body rest IHb IH|lk seg fa ta rest IH|seg k n elems rest IH|sk ta rest IH] using items_ind; intros p.
  - split; constructor.
  - destruct (IH p) as (A & B). cbn [ventries sentries vstmts flat_map ventry sentry stmt_of app]. split; constructor; assumption.
  - destruct (IH p) as (A & B). destruct (IHb (p ++ [seg])) as (Ab & Bb).
    cbn [ventries sentries vstmts flat_map ventry sentry stmt_of app].
    fold (ventries (p ++ [seg]) body). fold (vstmts body). fold (ventries p rest). fold (vstmts rest).
    fold (sentries (bk_op bk =? aml_pOpMethod) (p ++ [seg]) body). fold (sentries false p rest). fold (sentries true p rest).
    set (hdr := blk_entry (p ++ [seg]) bk (bfx bk fa) ++ (if bk_op bk =? aml_pOpMethod then concat (vstmts body) else [])).
    set (X := if bk_op bk =? aml_pOpMethod then [] else anon (p ++ [seg]) (vstmts body)).
    assert (HB : Permutation (ventries (p ++ [seg]) body ++ X) (sentries (bk_op bk =? aml_pOpMethod) (p ++ [seg]) body)).
    { unfold X. destruct (bk_op bk =? aml_pOpMethod); [rewrite app_nil_r; exact Bb|exact Ab]. }
    assert (HG : forall T T', Permutation T T' ->
              Permutation ((ventries (p ++ [seg]) body ++ X ++ [hdr]) ++ T) (hdr :: sentries (bk_op bk =? aml_pOpMethod) (p ++ [seg]) body ++ T')).
    { intros T T' HT. rewrite (app_assoc (ventries (p ++ [seg]) body) X [hdr]).
      eapply Permutation_trans; [apply Permutation_app_tail; apply Permutation_sym; apply Permutation_cons_append|].
      cbn [app]. constructor. apply Permutation_app; assumption. }
    split; [rewrite <- app_assoc; apply HG; exact A|apply HG; exact B].
  - destruct (IH p) as (A & B). cbn [ventries sentries vstmts flat_map ventry sentry stmt_of app]. split; constructor; assumption.
  - destruct (IH p) as (A & B). cbn [ventries sentries vstmts flat_map ventry sentry stmt_of app]. split; constructor; assumption.
  - destruct (IH p) as (A & B). cbn [ventries sentries vstmts flat_map ventry sentry stmt_of app anon map].
    fold (ventries p rest). fold (vstmts rest). fold (anon p (vstmts rest)). fold (sentries false p rest). fold (sentries true p rest).
    split; [|exact B]. apply Permutation_sym. apply Permutation_cons_app. apply Permutation_sym. exact A.
Qed.

(** ---- the arguments of a named object, one by one ---- *)
Definition argF (t : T) (tables : list (list N)) (f : nat) (known : list path) (op : N) (p' argScope : path)
  (a : list (list N) * list N) (k : N) : list (list N) * list N :=
  let '(sub, args) := a in
  match obj t k with
  | Some ko =>
      if o_opcode ko =? aml_pOpIntScopeBlock then
        let '(es', st') := walk t tables f known k p' in
        if op =? aml_pOpMethod then (sub ++ es', args ++ concat st')
        else (sub ++ es' ++ anon p' st', args)
      else (sub, args ++ renderExpr t tables (pool_fuel t) known argScope k)
  | None => (sub ++ [bad], args)
  end.

Definition fx_obj (t : T) (k : N) (wv : fw * N) : Prop :=
  exists ko, obj t k = Some ko /\ o_opcode ko = fw_op (fst wv) /\ View.kids t ko = [] /\ o_value ko = Some (VNum (snd wv)).

Lemma argF_fx (t : T) tables f known op p' sc : forall ks (l : fxs) sub args, Forall2 (fx_obj t) ks l ->
  fold_left (argF t tables f known op p' sc) ks (sub, args) = (sub, args ++ flat_map (fun '(w, v) => tok_const (fw_op w) v) l).
Proof.
  induction ks as [|k ks IH]; intros l sub args HF; inversion HF as [|k0 [w v] ks0 l0 Hk Hr]; subst; cbn [fold_left flat_map]; [rewrite app_nil_r; reflexivity|].
  destruct Hk as (ko & Hko & Hop & Hkk & Hv). cbn [fst snd] in Hop, Hv.
  unfold argF at 2. rewrite Hko, Hop.
  assert (E : fw_op w =? aml_pOpIntScopeBlock = false) by (destruct w; reflexivity). rewrite E.
  unfold pool_fuel. rewrite (render_const t tables _ known sc k ko Hko Hkk); rewrite ?Hop; try (destruct w; reflexivity).
  2:{ rewrite Hv. exact I. }
  rewrite Hv. rewrite (IH l0 sub _ Hr). rewrite <- app_assoc. reflexivity.
Qed.

(** ---- a block-like named object ---- *)
Lemma walkF_blk (t : T) tables f known p es stmts c co bk pth fxi (l : fxs) sb ko es' :
  obj t c = Some co -> o_opcode co = bk_op bk -> View.kids t co = pth :: fxi ++ [sb] ->
  Forall2 (fx_obj t) fxi l ->
  obj t sb = Some ko -> o_opcode ko = aml_pOpIntScopeBlock ->
  walk t tables f known sb (p ++ [name_num (o_name co)]) = (es', []) ->
  walkF t tables f known p (es, stmts) c = (es ++ es' ++ [blk_entry (p ++ [name_num (o_name co)]) bk l], stmts).
Proof.
  intros Ho Hop Hk HF Hko Hopk Hw. unfold walkF. rewrite Ho. cbv zeta. rewrite Hop.
  assert (E1 : (bk_op bk =? aml_pOpIntScopeBlock) && negb (is_zero_scopeblock co) = false) by (destruct bk; reflexivity).
  assert (E2 : bk_op bk =? aml_pOpIntNamedField = false) by (destruct bk; reflexivity).
  assert (E3 : is_declop (bk_op bk) = true) by (destruct bk; reflexivity).
  rewrite E1, E2, E3. rewrite Hk.
  set (p' := p ++ [name_num (o_name co)]).
  change (fold_left _ (fxi ++ [sb]) ([], [])) with
    (fold_left (argF t tables f known (bk_op bk) p' (if bk_op bk =? aml_pOpMethod then p' else p)) (fxi ++ [sb]) ([], [])).
  rewrite fold_left_app, (argF_fx t tables f known _ p' _ fxi l [] [] HF). cbn [fold_left app].
  unfold argF. rewrite Hko, Hopk. change (aml_pOpIntScopeBlock =? aml_pOpIntScopeBlock) with true. cbv iota.
  fold p' in Hw. rewrite Hw. unfold blk_entry.
  destruct (bk_op bk =? aml_pOpMethod); cbn [anon map concat app]; rewrite ?app_nil_r; reflexivity.
Qed.

Definition cst_obj (t : T) (k : N) (d : decl) : Prop :=
  exists ko, obj t k = Some ko /\ o_opcode ko = d_op d /\ View.kids t ko = [] /\ o_value ko = const_val (d_op d) (d_v d).

Lemma const_ops d : is_constb (d_op d) = true ->
  (d_op d =? aml_pOpIntScopeBlock) = false /\ (d_op d =? aml_pOpIntResolvedNamePath) = false /\ (d_op d =? aml_pOpIntNamePath) = false /\
  (d_op d =? aml_pOpIntNamePathOrMethodCall) = false /\ (d_op d =? aml_pOpIntMethodCall) = false /\ d_op d <> opFreed.
Proof.
  intros Hc. destruct (is_constb_cases _ Hc) as [E|[E|[E|[E|[E|[E|E]]]]]]; rewrite E; repeat split; discriminate.
Qed.

Definition str_obj (t : T) (tables : list (list N)) (k : N) (b : list N) : Prop :=
  exists ko tb sl, obj t k = Some ko /\ o_opcode ko = aml_pOpStringPrefix /\ View.kids t ko = [] /\
                   o_value ko = Some (VBytes tb sl) /\ value_bytes tables (o_value ko) = Some b.
Definition targ_obj (t : T) (tables : list (list N)) (k : N) (a : targ) : Prop :=
  match a with TInt d => cst_obj t k d | TStr b => str_obj t tables k b end.

Lemma render_str (t : T) tables f known scope k b : str_obj t tables k b ->
  renderExpr t tables (S f) known scope k = tok_bytes OP_STRING b.
Proof.
  intros (ko & tb & sl & Ho & Hop & Hk & Hv & Hb). cbn [renderExpr]. rewrite Ho. cbv zeta. rewrite Hop.
  change (aml_pOpStringPrefix =? aml_pOpIntResolvedNamePath) with false. change (aml_pOpStringPrefix =? aml_pOpIntNamePath) with false.
  change (aml_pOpStringPrefix =? aml_pOpIntNamePathOrMethodCall) with false. change (aml_pOpStringPrefix =? aml_pOpIntMethodCall) with false. cbn [orb].
  unfold exprKids. rewrite Hk. cbn [exprKids_go flat_map]. rewrite Hb, Hv. unfold tok_bytes. cbn [app]. rewrite <- ?app_assoc. reflexivity.
Qed.

Lemma argF_cst (t : T) tables f known op p' sc : forall ks (ta : list targ) sub args, Forall2 (targ_obj t tables) ks ta -> forallb targ_okb ta = true ->
  fold_left (argF t tables f known op p' sc) ks (sub, args) = (sub, args ++ flat_map targ_tokens ta).
Proof.
  induction ks as [|k ks IH]; intros ta sub args HF Hok; inversion HF as [|k0 d ks0 ta0 Hk Hr]; subst; cbn [fold_left flat_map]; [rewrite app_nil_r; reflexivity|].
  cbn [forallb] in Hok. apply andb_prop in Hok. destruct Hok as [Hd Hok].
  destruct d as [d|b]; cbn [targ_obj targ_okb targ_tokens] in *.
  - unfold cst_okb in Hd. apply andb_prop in Hd. destruct Hd as [Hc _].
    destruct (const_ops d Hc) as (E0 & E1 & E2 & E3 & E4 & _).
    destruct Hk as (ko & Hko & Hop & Hkk & Hv).
    unfold argF at 2. rewrite Hko, Hop, E0.
    unfold pool_fuel. rewrite (render_const t tables _ known sc k ko Hko Hkk); rewrite ?Hop; try assumption.
    2:{ rewrite Hv. unfold const_val. destruct (const_bytes (d_op d)); exact I. }
    rewrite Hv. rewrite (IH ta0 sub _ Hr Hok). rewrite <- app_assoc. reflexivity.
  - pose proof Hk as (ko & tb & sl & Hko & Hop & _).
    unfold argF at 2. rewrite Hko, Hop. change (aml_pOpStringPrefix =? aml_pOpIntScopeBlock) with false. cbv iota.
    unfold pool_fuel. rewrite (render_str t tables _ known sc k b Hk).
    rewrite (IH ta0 sub _ Hr Hok). rewrite <- app_assoc. reflexivity.
Qed.

(** ---- a leaf named object ---- *)
Lemma walkF_leaf (t : T) tables f known p es stmts c co lk pth fxi (l : fxs) csi ta :
  obj t c = Some co -> o_opcode co = lk_op lk -> View.kids t co = pth :: fxi ++ csi ->
  Forall2 (fx_obj t) fxi l -> Forall2 (targ_obj t tables) csi ta -> forallb targ_okb ta = true ->
  walkF t tables f known p (es, stmts) c = (es ++ [leaf_entry (p ++ [name_num (o_name co)]) lk l ta], stmts).
Proof.
  intros Ho Hop Hk HF HC Hok. unfold walkF. rewrite Ho. cbv zeta. rewrite Hop.
  assert (E1 : (lk_op lk =? aml_pOpIntScopeBlock) && negb (is_zero_scopeblock co) = false) by (destruct lk; reflexivity).
  assert (E2 : lk_op lk =? aml_pOpIntNamedField = false) by (destruct lk; reflexivity).
  assert (E3 : is_declop (lk_op lk) = true) by (destruct lk; reflexivity).
  rewrite E1, E2, E3. rewrite Hk.
  set (p' := p ++ [name_num (o_name co)]).
  change (fold_left _ (fxi ++ csi) ([], [])) with
    (fold_left (argF t tables f known (lk_op lk) p' (if lk_op lk =? aml_pOpMethod then p' else p)) (fxi ++ csi) ([], [])).
  rewrite fold_left_app, (argF_fx t tables f known _ p' _ fxi l [] [] HF). cbn [app].
  rewrite (argF_cst t tables f known _ p' _ csi ta [] _ HC Hok). unfold leaf_entry. cbn [app]. reflexivity.
Qed.

(** ---- a Name whose value is a Package of constants ---- *)
Lemma renderExpr_S (t : T) tables f known scope idx : renderExpr t tables (S f) known scope idx =
  match obj t idx with
  | None => bad
  | Some o =>
      let op := o_opcode o in
      if op =? aml_pOpIntResolvedNamePath then
        match o_value o with Some (VIdx i) => [TOK_NAMEREF; 1] ++ tok_path (objPath t i) | _ => bad end
      else if (op =? aml_pOpIntNamePath) || (op =? aml_pOpIntNamePathOrMethodCall) then
        match value_bytes tables (o_value o) with
        | None => bad
        | Some raw =>
            match resolveRaw known scope raw with
            | Some p => if (lenN raw =? 0) then [TOK_NAMEREF; 0; 0] else [TOK_NAMEREF; 1] ++ tok_path p
            | None => [TOK_NAMEREF; 0; lenN raw] ++ raw
            end
        end
      else if op =? aml_pOpIntMethodCall then
        match o_value o with
        | Some (VIdx i) =>
            let ks := exprKids t o in
            [TOK_CALL] ++ tok_path (objPath t i) ++ [lenN ks] ++ flat_map (renderExpr t tables f known scope) ks
        | _ => bad
        end
      else
        let ks := exprKids t o in
        [op] ++ (match o_value o with
                 | None => [0]
                 | Some (VNum v) => [1; v]
                 | Some (VBytes _ _) => match value_bytes tables (o_value o) with Some b => [2; lenN b] ++ b | None => bad end
                 | _ => [9]
                 end) ++ [lenN ks] ++ flat_map (renderExpr t tables f known scope) ks
  end.
Proof. reflexivity. Qed.

Lemma render_targs (t : T) tables f known sc : forall ks (ta : list targ), Forall2 (targ_obj t tables) ks ta -> forallb targ_okb ta = true ->
  flat_map (renderExpr t tables (S f) known sc) ks = flat_map targ_tokens ta.
Proof.
  induction ks as [|k ks IH]; intros ta HF Hok; inversion HF as [|k0 d ks0 ta0 Hk Hr]; subst; cbn [flat_map]; [reflexivity|].
  cbn [forallb] in Hok. apply andb_prop in Hok. destruct Hok as [Hd Hok]. rewrite (IH ta0 Hr Hok). f_equal.
  destruct d as [d|b]; cbn [targ_obj targ_okb targ_tokens] in *.
  - unfold cst_okb in Hd. apply andb_prop in Hd. destruct Hd as [Hc _].
    destruct (const_ops d Hc) as (E0 & E1 & E2 & E3 & E4 & _). destruct Hk as (ko & Hko & Hop & Hkk & Hv).
    rewrite (render_const t tables _ known sc k ko Hko Hkk); rewrite ?Hop; try assumption.
    + rewrite Hv. reflexivity.
    + rewrite Hv. unfold const_val. destruct (const_bytes (d_op d)); exact I.
  - apply render_str. exact Hk.
Qed.

(** the objects of a package element *)
Section All2.
Variable P : N -> pel -> Prop.
Fixpoint all2 (ks : list N) (es : list pel) {struct es} : Prop :=
  match es, ks with [], [] => True | e :: es', k :: ks' => P k e /\ all2 ks' es' | _, _ => False end.
End All2.
Fixpoint pel_obj (t : T) (tables : list (list N)) (idx : N) (e : pel) {struct e} : Prop :=
  match e with
  | PLeaf a => targ_obj t tables idx a
  | PSub _ n es =>
      exists po kb ksb so, obj t idx = Some po /\ o_opcode po = aml_pOpPackage /\ o_infoIndex po = 11 /\ o_value po = None /\
        View.kids t po = [kb; ksb] /\ fx_obj t kb (W1, n) /\ obj t ksb = Some so /\ o_opcode so = aml_pOpIntScopeBlock /\
        all2 (pel_obj t tables) (View.kids t so) es
  end.
Definition pels_obj (t : T) (tables : list (list N)) (ks : list N) (es : list pel) : Prop := all2 (pel_obj t tables) ks es.
Lemma pel_obj_sub t tables idx k n es : pel_obj t tables idx (PSub k n es) =
  (exists po kb ksb so, obj t idx = Some po /\ o_opcode po = aml_pOpPackage /\ o_infoIndex po = 11 /\ o_value po = None /\
     View.kids t po = [kb; ksb] /\ fx_obj t kb (W1, n) /\ obj t ksb = Some so /\ o_opcode so = aml_pOpIntScopeBlock /\
     pels_obj t tables (View.kids t so) es).
Proof. reflexivity. Qed.

Lemma render_pels (t : T) tables known sc : forall es ks f, pels_obj t tables ks es -> forallb pel_okb es = true -> (pels_sz es <= f)%nat ->
  flat_map (renderExpr t tables f known sc) ks = flat_map pel_tokens es /\ length ks = length es.
Proof.
  induction es as [|a rest IH|k n es rest IHe IH] using pels_ind; intros ks f HO Hok Hf.
  - destruct ks; [split; reflexivity|contradiction].
  - destruct ks as [|k0 ks]; [contradiction|]. unfold pels_obj; cbn [all2] in HO. destruct HO as (Hk & Hr).
    cbn [forallb] in Hok. apply andb_prop in Hok. destruct Hok as [Hd Hok]. rewrite pels_sz_cons in Hf. cbn [pel_sz] in Hf.
    destruct f as [|f']; [lia|]. destruct (IH ks (S f') Hr Hok ltac:(lia)) as (E & L). cbn [flat_map length]. rewrite E, L. split; [|reflexivity]. f_equal.
    cbn [pel_obj pel_okb pel_tokens] in *.
    pose proof (render_targs t tables f' known sc [k0] [a] ltac:(constructor; [exact Hk|constructor]) ltac:(cbn [forallb]; rewrite Hd; reflexivity)) as R.
    cbn [flat_map] in R. rewrite !app_nil_r in R. exact R.
  - destruct ks as [|k0 ks]; [contradiction|]. unfold pels_obj; cbn [all2] in HO. destruct HO as (Hk & Hr).
    cbn [forallb] in Hok. apply andb_prop in Hok. destruct Hok as [Hd Hok]. rewrite pels_sz_cons, pel_sz_sub in Hf.
    destruct f as [|f']; [lia|]. destruct (IH ks (S f') Hr Hok ltac:(lia)) as (E & L). cbn [flat_map length]. rewrite E, L. split; [|reflexivity]. f_equal.
    rewrite pel_obj_sub in Hk. destruct Hk as (po & kb & ksb & so & Hpo & Hopp & Hinf & Hvp & Hkp & Hkb & Hso & Hops & HF).
    rewrite pel_okb_sub in Hd. apply andb_prop in Hd. destruct Hd as [_ Hes].
    destruct f' as [|f'']; [lia|]. destruct (IHe (View.kids t so) (S f'') HF Hes ltac:(lia)) as (Ee & Le).
    rewrite renderExpr_S. rewrite Hpo. cbv zeta. rewrite Hopp.
    change (aml_pOpPackage =? aml_pOpIntResolvedNamePath) with false. change (aml_pOpPackage =? aml_pOpIntNamePath) with false.
    change (aml_pOpPackage =? aml_pOpIntNamePathOrMethodCall) with false. change (aml_pOpPackage =? aml_pOpIntMethodCall) with false. cbn [orb].
    assert (Ek : exprKids t po = kb :: View.kids t so).
    { unfold exprKids, argTypesOf. rewrite Hkp, Hinf. cbn [exprKids_go]. destruct Hkb as (ko & Hko & Hopk & _). cbn [fst] in Hopk.
      rewrite Hko, Hopk. change (aml_pOpBytePrefix =? aml_pOpIntScopeBlock) with false. change (aml_pOpBytePrefix =? aml_pOpZero) with false. cbn [andb].
      rewrite Hso, Hops. change (aml_pOpIntScopeBlock =? aml_pOpIntScopeBlock) with true. cbv iota. rewrite app_nil_r. reflexivity. }
    rewrite Ek, Hvp. cbn [flat_map lenN length app]. rewrite Ee.
    destruct Hkb as (ko & Hko & Hopk & Hkk & Hvk). cbn [fst snd] in Hopk, Hvk.
    rewrite (render_const t tables _ known sc kb ko Hko Hkk); rewrite ?Hopk; try reflexivity; [|rewrite Hvk; exact I].
    rewrite Hvk. unfold const_tokens, tok_const. cbn [app pel_tokens].
    replace (lenN (kb :: View.kids t so)) with (1 + lenN es) by (unfold lenN; cbn [length]; rewrite Le; lia). reflexivity.
Qed.

Lemma walkF_namepkg (t : T) tables f known p es stmts c co pth pk k n elems :
  obj t c = Some co -> o_opcode co = aml_pOpName -> View.kids t co = [pth; pk] ->
  pel_obj t tables pk (PSub k n elems) -> pel_okb (PSub k n elems) = true -> (3 + pels_sz elems <= pool_fuel t)%nat ->
  walkF t tables f known p (es, stmts) c = (es ++ [pkg_entry (p ++ [name_num (o_name co)]) n elems], stmts).
Proof.
  intros Ho Hop Hk HP Hok Hfuel. unfold walkF. rewrite Ho. cbv zeta. rewrite Hop.
  change ((aml_pOpName =? aml_pOpIntScopeBlock) && negb (is_zero_scopeblock co)) with false. cbv iota.
  change (aml_pOpName =? aml_pOpIntNamedField) with false. change (is_declop aml_pOpName) with true. cbv iota.
  pose proof HP as HP'. rewrite pel_obj_sub in HP'. destruct HP' as (po & kb & ksb & so & Hpo & Hopp & _).
  rewrite Hk. cbn [fold_left]. rewrite Hpo, Hopp. change (aml_pOpPackage =? aml_pOpIntScopeBlock) with false. cbv iota.
  change (aml_pOpName =? aml_pOpMethod) with false. cbv iota.
  assert (Hr : renderExpr t tables (pool_fuel t) known p pk = pel_tokens (PSub k n elems)).
  { destruct (render_pels t tables known p [PSub k n elems] [pk] (pool_fuel t)) as (E & _).
    - unfold pels_obj; cbn [all2]. split; [exact HP|exact I].
    - cbn [forallb]. rewrite Hok. reflexivity.
    - cbn [pels_sz fold_right]. rewrite pel_sz_sub. fold (pels_sz elems). lia.
    - cbn [flat_map] in E. rewrite !app_nil_r in E. exact E. }
  rewrite Hr. unfold pkg_entry. cbn [app pel_tokens]. reflexivity.
Qed.

Lemma walkF_blk' (t : T) tables f known p es stmts c co bk pth fxi (l : fxs) sb ko es' st' :
  obj t c = Some co -> o_opcode co = bk_op bk -> View.kids t co = pth :: fxi ++ [sb] ->
  Forall2 (fx_obj t) fxi l ->
  obj t sb = Some ko -> o_opcode ko = aml_pOpIntScopeBlock ->
  walk t tables f known sb (p ++ [name_num (o_name co)]) = (es', st') ->
  walkF t tables f known p (es, stmts) c =
    (es ++ es' ++ (if bk_op bk =? aml_pOpMethod then [] else anon (p ++ [name_num (o_name co)]) st') ++
     [blk_entry (p ++ [name_num (o_name co)]) bk l ++ (if bk_op bk =? aml_pOpMethod then concat st' else [])], stmts).
Proof.
  intros Ho Hop Hk HF Hko Hopk Hw. unfold walkF. rewrite Ho. cbv zeta. rewrite Hop.
  assert (E1 : (bk_op bk =? aml_pOpIntScopeBlock) && negb (is_zero_scopeblock co) = false) by (destruct bk; reflexivity).
  assert (E2 : bk_op bk =? aml_pOpIntNamedField = false) by (destruct bk; reflexivity).
  assert (E3 : is_declop (bk_op bk) = true) by (destruct bk; reflexivity).
  rewrite E1, E2, E3. rewrite Hk.
  set (p' := p ++ [name_num (o_name co)]).
  change (fold_left _ (fxi ++ [sb]) ([], [])) with
    (fold_left (argF t tables f known (bk_op bk) p' (if bk_op bk =? aml_pOpMethod then p' else p)) (fxi ++ [sb]) ([], [])).
  rewrite fold_left_app, (argF_fx t tables f known _ p' _ fxi l [] [] HF). cbn [fold_left app].
  unfold argF. rewrite Hko, Hopk. change (aml_pOpIntScopeBlock =? aml_pOpIntScopeBlock) with true. cbv iota.
  fold p' in Hw. rewrite Hw. unfold blk_entry.
  destruct (bk_op bk =? aml_pOpMethod); cbn [app]; rewrite ?app_nil_r, <- ?app_assoc; reflexivity.
Qed.

Lemma exprKids_targs (t : T) tables : forall ks (ta : list targ) types, Forall2 (targ_obj t tables) ks ta -> forallb targ_okb ta = true ->
  Forall (fun ty => ty = aml_pArgTypeTermArg) types -> exprKids_go t ks types = ks.
Proof.
  induction ks as [|k ks IH]; intros ta types HF Hok Hty; [reflexivity|].
  inversion HF as [|k0 d ks0 ta0 Hk Hr]; subst. cbn [forallb] in Hok. apply andb_prop in Hok. destruct Hok as [Hd Hok].
  cbn [exprKids_go].
  assert (Hty' : Forall (fun ty => ty = aml_pArgTypeTermArg) (match types with [] => [] | _ :: tr => tr end)).
  { destruct types; [constructor|exact (Forall_inv_tail Hty)]. }
  assert (Hz : match types with
               | ty :: _ => (ty =? aml_pArgTypeTarget) || (ty =? aml_pArgTypeSuperName) || (ty =? aml_pArgTypeSimpleName)
               | [] => false end = false).
  { destruct types as [|ty tr]; [reflexivity|]. rewrite (Forall_inv Hty). reflexivity. }
  destruct d as [d|b]; cbn [targ_obj targ_okb] in *.
  - unfold cst_okb in Hd. apply andb_prop in Hd. destruct Hd as [Hc _]. destruct (const_ops d Hc) as (E0 & _).
    destruct Hk as (ko & Hko & Hop & _). rewrite Hko, Hop, E0, Hz, andb_false_r. rewrite (IH ta0 _ Hr Hok Hty'). reflexivity.
  - destruct Hk as (ko & tb & sl & Hko & Hop & _). rewrite Hko, Hop.
    change (aml_pOpStringPrefix =? aml_pOpIntScopeBlock) with false. change (aml_pOpStringPrefix =? aml_pOpZero) with false. cbn [andb].
    rewrite (IH ta0 _ Hr Hok Hty'). reflexivity.
Qed.

Lemma sk_types sk : Forall (fun ty => ty = aml_pArgTypeTermArg) (argTypes_go 8 0 (sk_af sk)).
Proof. destruct sk; repeat constructor. Qed.

Lemma walkF_stmt (t : T) tables f known p es stmts c co sk ks (ta : list targ) :
  obj t c = Some co -> o_opcode co = sk_op sk -> o_infoIndex co = sk_info sk -> o_value co = None ->
  View.kids t co = ks -> Forall2 (targ_obj t tables) ks ta -> forallb targ_okb ta = true ->
  walkF t tables f known p (es, stmts) c = (es, stmts ++ [stmt_tokens sk ta]).
Proof.
  intros Ho Hop Hinf Hv Hk HF Hok. unfold walkF. rewrite Ho. cbv zeta. rewrite Hop.
  assert (E1 : (sk_op sk =? aml_pOpIntScopeBlock) && negb (is_zero_scopeblock co) = false) by (destruct sk; reflexivity).
  assert (E2 : sk_op sk =? aml_pOpIntNamedField = false) by (destruct sk; reflexivity).
  assert (E3 : is_declop (sk_op sk) = false) by (destruct sk; reflexivity).
  assert (E4 : sk_op sk =? aml_pOpScope = false) by (destruct sk; reflexivity).
  assert (E5 : is_fieldcontainerop (sk_op sk) = false) by (destruct sk; reflexivity).
  rewrite E1, E2, E3, E4, E5. f_equal. f_equal. f_equal.
  unfold pool_fuel. cbn [renderStmt]. rewrite Ho. cbv zeta. rewrite Hop.
  assert (E6 : (sk_op sk =? aml_pOpIf) || (sk_op sk =? aml_pOpElse) || (sk_op sk =? aml_pOpWhile) = false) by (destruct sk; reflexivity).
  rewrite E6. unfold pool_fuel. rewrite renderExpr_S, Ho. cbv zeta. rewrite Hop.
  assert (E7 : sk_op sk =? aml_pOpIntResolvedNamePath = false) by (destruct sk; reflexivity).
  assert (E8 : (sk_op sk =? aml_pOpIntNamePath) || (sk_op sk =? aml_pOpIntNamePathOrMethodCall) = false) by (destruct sk; reflexivity).
  assert (E9 : sk_op sk =? aml_pOpIntMethodCall = false) by (destruct sk; reflexivity).
  rewrite E7, E8, E9, Hv.
  assert (Ek : exprKids t co = ks).
  { unfold exprKids, argTypesOf. rewrite Hk, Hinf. destruct (sk_row sk) as (Hr & _). rewrite Hr.
    apply (exprKids_targs t tables ks ta _ HF Hok (sk_types sk)). }
  rewrite Ek. rewrite (render_targs t tables _ known p ks ta HF Hok).
  unfold stmt_tokens. assert (El : length ks = length ta) by (clear - HF; induction HF; cbn [length]; congruence). unfold lenN. rewrite El. reflexivity.
Qed.

Section ViewF1.
Variable t : T.
Variable g : ghost.
Variable pl : list pay.
Hypothesis H : Rep t g pl.
Variable tables : list (list N).

Lemma fold_leaves f known p : forall l acc,
  (forall c, In c l -> exists co, obj t c = Some co /\ o_opcode co = aml_pOpIntScopeBlock /\
                                  name_eqb (o_name co) (0, 0, 0, 0) = false /\ View.kids t co = []) ->
  fold_left (walkF t tables (S f) known p) l acc = acc.
Proof.
  induction l as [|c l IH]; intros acc Hall; cbn [fold_left]; [reflexivity|].
  destruct (Hall c (or_introl eq_refl)) as (co & Ho & Hop & Hnm & Hk).
  rewrite (walkF_empty_scope t tables f known p acc c co Ho Hop Hnm Hk). apply IH. intros c' Hc'. apply Hall. right. exact Hc'.
Qed.

Lemma fx_view vh : forall (l : fxs) b off, Forall (Desc g pl) (leaf_row b (fx_pays vh off l)) -> Forall2 (fx_obj t) (seqN b (length l)) l.
Proof.
  induction l as [|[w v] r IH]; intros b off HD; [constructor|]. cbn [fx_pays leaf_row length seqN] in HD |- *.
  constructor; [|apply (IH _ _ (Forall_inv_tail HD))].
  destruct (Desc_inv _ _ _ _ _ (Forall_inv HD)) as (Pb & Kb & _). cbn [map] in Kb.
  destruct (view_obj t g pl b _ H Pb ltac:(destruct w; discriminate)) as (ko & Hko & Epko & Hkko).
  exists ko. split; [exact Hko|]. split; [rewrite (pay_op _ _ Epko); reflexivity|]. split; [rewrite Hkko; exact Kb|rewrite (pay_val _ _ Epko); reflexivity].
Qed.

Lemma cst_view vh vtbl data : nth_error tables (N.to_nat vtbl) = Some data ->
  forall (ta : list targ) b off dpre dpost, data = dpre ++ enc_ta ta ++ dpost -> off = lenN dpre ->
  forallb targ_okb ta = true -> Forall (Desc g pl) (leaf_row b (cst_pays vh vtbl off ta)) ->
  Forall2 (targ_obj t tables) (seqN b (length ta)) ta.
Proof.
  intros Hnth. induction ta as [|d r IH]; intros b off dpre dpost Hdata Hoff Hok HD; [constructor|]. cbn [cst_pays leaf_row length seqN] in HD |- *.
  cbn [forallb] in Hok. apply andb_prop in Hok. destruct Hok as [Hd Hok].
  change (enc_ta (d :: r)) with (enc_targ d ++ enc_ta r) in Hdata.
  constructor.
  2:{ apply (IH (b + 1) (off + lenN (enc_targ d)) (dpre ++ enc_targ d) dpost); [rewrite Hdata, <- !app_assoc; reflexivity|rewrite lenN_app, Hoff; reflexivity|exact Hok|exact (Forall_inv_tail HD)]. }
  destruct (Desc_inv _ _ _ _ _ (Forall_inv HD)) as (Pb & Kb & _). cbn [map] in Kb.
  destruct d as [d|bs]; cbn [targ_okb targ_pay targ_obj enc_targ] in *.
  - unfold cst_okb in Hd. apply andb_prop in Hd. destruct Hd as [Hc _].
    assert (Hlc : y_op (cst_pay vh off d) <> opFreed).
    { cbn [cst_pay y_op]. destruct (is_constb_cases _ Hc) as [E|[E|[E|[E|[E|[E|E]]]]]]; rewrite E; discriminate. }
    destruct (view_obj t g pl b _ H Pb Hlc) as (ko & Hko & Epko & Hkko).
    exists ko. split; [exact Hko|]. split; [rewrite (pay_op _ _ Epko); reflexivity|]. split; [rewrite Hkko; exact Kb|rewrite (pay_val _ _ Epko); reflexivity].
  - destruct (view_obj t g pl b _ H Pb ltac:(discriminate)) as (ko & Hko & Epko & Hkko).
    exists ko, vtbl, (mkSlice (Some (off + 1)) (lenN bs)). split; [exact Hko|]. split; [rewrite (pay_op _ _ Epko); reflexivity|]. split; [rewrite Hkko; exact Kb|].
    split; [rewrite (pay_val _ _ Epko); reflexivity|]. rewrite (pay_val _ _ Epko). cbn [str_pay y_val value_bytes s_len s_ptr].
    destruct (N.eqb_spec (lenN bs) 0) as [E0|E0]; [destruct bs; [reflexivity|unfold lenN in E0; cbn [length] in E0; lia]|].
    rewrite Hnth.
    assert (Ed : data = (dpre ++ [OP_STRING]) ++ bs ++ ([0] ++ enc_ta r ++ dpost)).
    { rewrite Hdata. rewrite <- !app_assoc. cbn [app]. rewrite <- !app_assoc. reflexivity. }
    rewrite Ed.
    replace (N.to_nat (off + 1)) with (length (dpre ++ [OP_STRING])) by (rewrite app_length, Hoff; unfold lenN; cbn [length]; lia).
    replace (N.to_nat (lenN bs)) with (length bs) by (unfold lenN; lia).
    apply take_bytes_app.
Qed.

Lemma pel_view vh vtbl data : nth_error tables (N.to_nat vtbl) = Some data ->
  forall (els : list pel) b off dpre dpost, data = dpre ++ enc_pels els ++ dpost -> off = lenN dpre ->
  forallb pel_okb els = true -> Forall (Desc g pl) (pel_trees vh vtbl b off els) ->
  pels_obj t tables (map ridx (pel_trees vh vtbl b off els)) els.
Proof.
  intros Hnth. induction els as [|a rest IH|k n es rest IHe IH] using pels_ind; intros b off dpre dpost Hdata Hoff Hok HD; [exact I| |];
    cbn [forallb] in Hok; apply andb_prop in Hok; destruct Hok as [Hd Hok]; rewrite pel_trees_cons in HD |- *; cbn [map]; unfold pels_obj; cbn [all2];
    rewrite enc_pels_cons in Hdata.
  - split.
    + cbn [pel_tree ridx pel_obj pel_okb enc_pel] in *.
      pose proof (cst_view vh vtbl data Hnth [a] b off dpre (enc_pels rest ++ dpost)
                    ltac:(rewrite Hdata; unfold enc_ta; cbn [flat_map]; rewrite <- !app_assoc; reflexivity) Hoff
                    ltac:(cbn [forallb]; rewrite Hd; reflexivity)
                    ltac:(cbn [cst_pays leaf_row]; constructor; [exact (Forall_inv HD)|constructor])) as HC.
      cbn [length seqN] in HC. inversion HC; subst. assumption.
    + apply (IH _ _ (dpre ++ enc_pel (PLeaf a)) dpost); [rewrite Hdata, <- !app_assoc; reflexivity|rewrite lenN_app, Hoff; reflexivity|exact Hok|exact (Forall_inv_tail HD)].
  - split.
    2:{ apply (IH _ _ (dpre ++ enc_pel (PSub k n es)) dpost); [rewrite Hdata, <- !app_assoc; reflexivity|rewrite lenN_app, Hoff; reflexivity|exact Hok|exact (Forall_inv_tail HD)]. }
    rewrite pel_okb_sub in Hd. apply andb_prop in Hd. destruct Hd as [Hx Hes]. apply andb_prop in Hx. destruct Hx as [_ Hpk]. apply pkglen_okb_adm in Hpk.
    pose proof (Forall_inv HD) as DP. rewrite pel_tree_sub in DP |- *. cbn [ridx]. rewrite pel_obj_sub.
    destruct (Desc_inv _ _ _ _ _ DP) as (PP & KP & HDp). cbn [map ridx] in KP.
    pose proof (Forall_inv HDp) as DB. pose proof (Forall_inv (Forall_inv_tail HDp)) as DS.
    destruct (Desc_inv _ _ _ _ _ DB) as (PB & KB & _). cbn [map] in KB.
    destruct (Desc_inv _ _ _ _ _ DS) as (PS & KS & HDe).
    destruct (view_obj t g pl b _ H PP ltac:(discriminate)) as (po & Hpo & Eppo & Hkpo).
    destruct (view_obj t g pl (b + 1) _ H PB ltac:(discriminate)) as (bo & Hbo & Epbo & Hkbo).
    destruct (view_obj t g pl (b + 2) _ H PS ltac:(discriminate)) as (so & Hso & Epso & Hkso).
    rewrite KP in Hkpo. rewrite KB in Hkbo. rewrite KS in Hkso.
    exists po, (b + 1), (b + 2), so.
    split; [exact Hpo|]. split; [rewrite (pay_op _ _ Eppo); reflexivity|]. split; [rewrite (pay_info _ _ Eppo); reflexivity|].
    split; [rewrite (pay_val _ _ Eppo); reflexivity|]. split; [exact Hkpo|].
    split; [exists bo; split; [exact Hbo|split; [rewrite (pay_op _ _ Epbo); reflexivity|split; [exact Hkbo|rewrite (pay_val _ _ Epbo); reflexivity]]]|].
    split; [exact Hso|]. split; [rewrite (pay_op _ _ Epso); reflexivity|]. rewrite Hkso.
    rewrite enc_pel_sub in Hdata.
    apply (IHe (b + 3) (off + 1 + k + 1) (dpre ++ [OP_PACKAGE] ++ enc_pkglen k (k + lenN ([n] ++ enc_pels es)) ++ [n]) (enc_pels rest ++ dpost));
      [rewrite Hdata; repeat (first [rewrite <- app_assoc | progress cbn [app]]); reflexivity| |exact Hes|exact HDe].
    rewrite (lenN_app dpre), (lenN_app [OP_PACKAGE]), (lenN_app (enc_pkglen _ _)), (lenN_enc_pkglen _ _ Hpk), Hoff.
    change (lenN [OP_PACKAGE]) with 1. change (lenN [n]) with 1. lia.
Qed.

Definition VSpec (its : list item) : Prop := forall vh vtbl f known p es st b off data dpre dpost,
  nth_error tables (N.to_nat vtbl) = Some data -> data = dpre ++ enc_items its ++ dpost -> off = lenN dpre ->
  Forall (Desc g pl) (lay5 vh vtbl b off its) -> forallb item_okb its = true -> (iszs its < f)%nat ->
  fold_left (walkF t tables f known p) (map ridx (lay5 vh vtbl b off its)) (es, st) = (es ++ ventries p its, st ++ vstmts its).


Lemma vspec_all : forall its, VSpec its.
Proof.
  induction its as [|d rest IH|bk k seg fa body rest IHb IH|lk seg fa ta rest IH|seg k n elems rest IH|sk ta rest IH] using items_ind; intros vh vtbl f known p es st b off data dpre dpost Hnth Hdata Hoff HD Hok Hf; subst off.
  - cbn [lay5 map fold_left ventries vstmts flat_map]. rewrite !app_nil_r. reflexivity.
  - change (vstmts (IName d :: rest)) with (vstmts rest). apply forallb_item_cons in Hok. destruct Hok as [Hd Hok]. cbn [item_okb] in Hd. apply andb_prop in Hd. destruct Hd as [Hd Hseg].
    apply N.ltb_lt in Hseg. unfold decl_okb in Hd. apply andb_prop in Hd. destruct Hd as [Hd _]. apply andb_prop in Hd. destruct Hd as [_ Hc].
    rewrite lay5_cons in HD |- *. rewrite map_app, fold_left_app. apply Forall_app in HD. destruct HD as [HDit HDrest].
    cbn [lay5_item map ridx fold_left] in HDit |- *.
    pose proof (Forall_inv HDit) as DN. destruct (Desc_inv _ _ _ _ _ DN) as (PN & KN & HDk). cbn [map ridx] in KN.
    pose proof (Forall_inv (Forall_inv_tail HDk)) as DC. destruct (Desc_inv _ _ _ _ _ DC) as (PC & KC & _). cbn [map] in KC.
    destruct (const_ops d Hc) as (E0 & E1 & E2 & E3 & E4 & Hlc).
    destruct (view_obj t g pl b _ H PN ltac:(discriminate)) as (co & Hco & Epco & Hkco).
    destruct (view_obj t g pl (b + 2) _ H PC Hlc) as (ko & Hko & Epko & Hkko).
    rewrite KN in Hkco. rewrite KC in Hkko.
    assert (Hopk : o_opcode ko = d_op d) by (rewrite (pay_op _ _ Epko); reflexivity).
    assert (Hvk : o_value ko = const_val (d_op d) (d_v d)) by (rewrite (pay_val _ _ Epko); reflexivity).
    rewrite (walkF_name t tables f known p es st b co (b + 1) (b + 2) ko Hco ltac:(rewrite (pay_op _ _ Epco); reflexivity) Hkco Hko Hkko);
      try (rewrite Hopk; assumption).
    2:{ rewrite Hvk. unfold const_val. destruct (const_bytes (d_op d)); exact I. }
    rewrite iszs_cons in Hf.
    rewrite (IH vh vtbl f known p _ st (b + N.of_nat (isz (IName d))) (lenN dpre + lenN (enc_item (IName d))) data (dpre ++ enc_item (IName d)) dpost Hnth
               ltac:(rewrite Hdata, enc_items_cons, <- !app_assoc; reflexivity) ltac:(rewrite lenN_app; reflexivity) HDrest Hok ltac:(lia)).
    cbn [ventries flat_map ventry]. rewrite <- app_assoc. cbn [app]. f_equal. f_equal. f_equal.
    unfold name_entry. rewrite Hopk, Hvk, (pay_name _ _ Epco). cbn [nam_pay y_name]. rewrite (name_num_seg _ Hseg). reflexivity.
  - change (vstmts (IBlk bk k seg fa body :: rest)) with (vstmts rest).
    apply forallb_item_cons in Hok. destruct Hok as [Hd Hok]. cbn [item_okb] in Hd. apply andb_prop in Hd. destruct Hd as [Hx Hbody].
    apply andb_prop in Hx. destruct Hx as [Hx Hpk]. apply pkglen_okb_adm in Hpk. change (flat_map enc_item body) with (enc_items body) in Hpk.
    apply andb_prop in Hx. destruct Hx as [Hx _]. apply andb_prop in Hx. destruct Hx as [Hx _].
    apply andb_prop in Hx. destruct Hx as [_ Hseg]. apply N.ltb_lt in Hseg.
    rewrite lay5_cons in HD |- *. rewrite map_app, fold_left_app. apply Forall_app in HD. destruct HD as [HDit HDrest].
    rewrite lay5_blk in HDit |- *. cbn [map ridx fold_left].
    set (l := bfx bk fa) in *. set (nf := length l) in *. unfold nfx in *. fold l nf in HDit |- *.
    pose proof (Forall_inv HDit) as DD. destruct (Desc_inv _ _ _ _ _ DD) as (PD & KD & HDk).
    rewrite map_app, leaf_row_idx, len_hd_pays in KD. fold l nf in KD. cbn [map ridx seqN app] in KD.
    apply Forall_app in HDk. destruct HDk as [HDrow HDsb]. pose proof (Forall_inv HDsb) as DS.
    destruct (Desc_inv _ _ _ _ _ DS) as (PS & KS & HDbody).
    unfold hd_pays in HDrow. cbn [leaf_row] in HDrow. fold l in HDrow.
    pose proof (fx_view vh l _ _ (Forall_inv_tail HDrow)) as HF. fold nf in HF.
    destruct (view_obj t g pl b _ H PD ltac:(destruct bk; discriminate)) as (co & Hco & Epco & Hkco).
    destruct (view_obj t g pl (b + 2 + N.of_nat nf) _ H PS ltac:(discriminate)) as (ko & Hko & Epko & Hkko).
    rewrite KD in Hkco. rewrite KS in Hkko.
    rewrite iszs_cons, isz_blk in Hf. fold l nf in Hf. destruct f as [|f']; [lia|].
    assert (Hnm : name_num (o_name co) = seg) by (rewrite (pay_name _ _ Epco); cbn [blk_pay y_name]; apply name_num_seg; exact Hseg).
    assert (Hw : walk t tables (S f') known (b + 2 + N.of_nat nf) (p ++ [name_num (o_name co)]) = (ventries (p ++ [seg]) body, vstmts body)).
    { rewrite walk_S, Hko, Hkko, Hnm.
      rewrite (IHb vh vtbl f' known (p ++ [seg]) [] [] (b + 3 + N.of_nat nf) (sb_off bk (lenN dpre) k fa) data
                 (dpre ++ enc_op (bk_op bk) ++ enc_pkglen k (k + lenN (seg_bytes seg ++ enc_fx l ++ enc_items body)) ++ seg_bytes seg ++ enc_fx l)
                 (enc_items rest ++ dpost) Hnth
                 ltac:(rewrite Hdata, enc_items_cons, enc_blk; fold l; rewrite <- !app_assoc; reflexivity)
                 ltac:(unfold sb_off, blo; fold l; rewrite (lenN_app dpre), (lenN_app (enc_op _)), (lenN_app (enc_pkglen _ _)), (lenN_enc_pkglen _ _ Hpk), (lenN_app (seg_bytes seg)); change (lenN (seg_bytes seg)) with 4; lia)
                 HDbody Hbody ltac:(lia)). reflexivity. }
    rewrite (walkF_blk' t tables (S f') known p es st b co bk (b + 1) (seqN (b + 1 + 1) nf) l (b + 2 + N.of_nat nf) ko _ _ Hco
               ltac:(rewrite (pay_op _ _ Epco); reflexivity) Hkco HF Hko ltac:(rewrite (pay_op _ _ Epko); reflexivity) Hw).
    rewrite (IH vh vtbl (S f') known p _ st (b + N.of_nat (isz (IBlk bk k seg fa body))) (lenN dpre + lenN (enc_item (IBlk bk k seg fa body))) data (dpre ++ enc_item (IBlk bk k seg fa body)) dpost Hnth
               ltac:(rewrite Hdata, enc_items_cons, <- !app_assoc; reflexivity) ltac:(rewrite lenN_app; reflexivity) HDrest Hok ltac:(lia)).
    cbn [ventries flat_map ventry]. fold (ventries (p ++ [seg]) body). fold (vstmts body). fold l. rewrite Hnm, <- !app_assoc. reflexivity.
  - change (vstmts (ILeaf lk seg fa ta :: rest)) with (vstmts rest).
    apply forallb_item_cons in Hok. destruct Hok as [Hd Hok]. cbn [item_okb] in Hd. apply andb_prop in Hd. destruct Hd as [Hx Hta].
    apply andb_prop in Hx. destruct Hx as [Hx _]. apply andb_prop in Hx. destruct Hx as [Hx _]. apply andb_prop in Hx. destruct Hx as [Hx _].
    apply andb_prop in Hx. destruct Hx as [_ Hseg]. apply N.ltb_lt in Hseg.
    rewrite lay5_cons in HD |- *. rewrite map_app, fold_left_app. apply Forall_app in HD. destruct HD as [HDit HDrest].
    cbn [lay5_item map ridx fold_left] in HDit |- *.
    set (l := lfx lk fa) in *. set (nf := length l) in *.
    pose proof (Forall_inv HDit) as DD. destruct (Desc_inv _ _ _ _ _ DD) as (PD & KD & HDk).
    rewrite leaf_row_idx, app_length, len_lhd_pays, len_cst_pays in KD. fold l nf in KD.
    rewrite leaf_row_app, len_lhd_pays in HDk. fold l nf in HDk. apply Forall_app in HDk. destruct HDk as [HDrow HDcs].
    unfold lhd_pays in HDrow. cbn [leaf_row] in HDrow. fold l in HDrow.
    pose proof (fx_view vh l _ _ (Forall_inv_tail HDrow)) as HF. fold nf in HF.
    pose proof (cst_view vh vtbl data Hnth ta (b + 1 + N.of_nat (S nf)) (ta_off lk (lenN dpre) fa) (dpre ++ enc_op (lk_op lk) ++ seg_bytes seg ++ enc_fx l) (enc_items rest ++ dpost)
                  ltac:(rewrite Hdata, enc_items_cons, enc_leaf; fold l; rewrite <- !app_assoc; reflexivity)
                  ltac:(unfold ta_off; fold l; rewrite !lenN_app; unfold llo; change (lenN (seg_bytes seg)) with 4; lia) Hta HDcs) as HC.
    destruct (view_obj t g pl b _ H PD ltac:(destruct lk; discriminate)) as (co & Hco & Epco & Hkco).
    rewrite KD in Hkco. change (S nf + length ta)%nat with (S (nf + length ta)) in Hkco. cbn [seqN] in Hkco. rewrite seqN_app in Hkco.
    replace (b + 1 + 1 + N.of_nat nf) with (b + 1 + N.of_nat (S nf)) in Hkco by lia.
    assert (Hnm : name_num (o_name co) = seg) by (rewrite (pay_name _ _ Epco); cbn [lf_pay y_name]; apply name_num_seg; exact Hseg).
    rewrite (walkF_leaf t tables f known p es st b co lk (b + 1) (seqN (b + 1 + 1) nf) l (seqN (b + 1 + N.of_nat (S nf)) (length ta)) ta Hco
               ltac:(rewrite (pay_op _ _ Epco); reflexivity) Hkco HF HC Hta).
    rewrite iszs_cons, isz_leaf in Hf.
    rewrite (IH vh vtbl f known p _ st (b + N.of_nat (isz (ILeaf lk seg fa ta))) (lenN dpre + lenN (enc_item (ILeaf lk seg fa ta))) data (dpre ++ enc_item (ILeaf lk seg fa ta)) dpost Hnth
               ltac:(rewrite Hdata, enc_items_cons, <- !app_assoc; reflexivity) ltac:(rewrite lenN_app; reflexivity) HDrest Hok ltac:(lia)).
    cbn [ventries flat_map ventry]. fold l. rewrite Hnm, <- !app_assoc. reflexivity.
  - change (vstmts (IPkg seg k n elems :: rest)) with (vstmts rest).
    apply forallb_item_cons in Hok. destruct Hok as [Hd Hok]. cbn [item_okb] in Hd. apply andb_prop in Hd. destruct Hd as [Hx Hel].
    apply andb_prop in Hx. destruct Hx as [Hx Hpk]. pose proof Hpk as Hpkb. apply pkglen_okb_adm in Hpk. apply andb_prop in Hx. destruct Hx as [Hx Hn].
    apply andb_prop in Hx. destruct Hx as [_ Hseg]. apply N.ltb_lt in Hseg.
    rewrite lay5_cons in HD |- *. rewrite map_app, fold_left_app. apply Forall_app in HD. destruct HD as [HDit HDrest].
    cbn [lay5_item map ridx fold_left] in HDit |- *.
    pose proof (Forall_inv HDit) as DN. destruct (Desc_inv _ _ _ _ _ DN) as (PN & KN & HDk). cbn [map ridx] in KN.
    change (ridx (pkg_tree vh vtbl (b + 2) (lenN dpre + 5) k n elems)) with (b + 2) in KN.
    pose proof (Forall_inv (Forall_inv_tail HDk)) as DP. unfold pkg_tree in DP.
    destruct (view_obj t g pl b _ H PN ltac:(discriminate)) as (co & Hco & Epco & Hkco).
    rewrite KN in Hkco.
    assert (Hnm : name_num (o_name co) = seg) by (rewrite (pay_name _ _ Epco); cbn [nam_pay y_name]; apply name_num_seg; exact Hseg).
    assert (Hsub : pel_okb (PSub k n elems) = true).
    { rewrite pel_okb_sub, Hn, Hpkb, Hel. reflexivity. }
    pose proof (pel_view vh vtbl data Hnth [PSub k n elems] (b + 2) (lenN dpre + 5) (dpre ++ OP_NAME :: seg_bytes seg) (enc_items rest ++ dpost)
                  ltac:(rewrite Hdata, enc_items_cons, enc_pkg_item; cbn [enc_pels flat_map]; rewrite enc_pel_sub; repeat (first [rewrite <- app_assoc | progress cbn [app]]); reflexivity)
                  ltac:(rewrite (lenN_app dpre), lenN_cons; change (lenN (seg_bytes seg)) with 4; lia)
                  ltac:(cbn [forallb]; rewrite Hsub; reflexivity)
                  ltac:(cbn [pel_trees]; constructor; [exact DP|constructor])) as HC.
    unfold pels_obj in HC; cbn [pel_trees map all2] in HC. destruct HC as (HC & _). rewrite pel_tree_sub in HC. cbn [ridx] in HC.
    assert (Hpf : (3 + pels_sz elems <= pool_fuel t)%nat).
    { assert (Hin : In (b + 2 + N.of_nat (2 + pels_sz elems)) (rnodes (pel_tree vh vtbl (b + 2) (lenN dpre + 5) (PSub k n elems)))).
      { apply pel_tree_nodes. rewrite pel_sz_sub. lia. }
      destruct (Desc_lookup g pl _ DP _ Hin) as (a0 & ks0 & Dy). destruct (Desc_inv _ _ _ _ _ Dy) as (Py & _ & _). apply pget_lt in Py.
      unfold pool_fuel. rewrite <- (rep_len_pool _ _ _ H). lia. }
    rewrite (walkF_namepkg t tables f known p es st b co (b + 1) (b + 2) k n elems Hco ltac:(rewrite (pay_op _ _ Epco); reflexivity) Hkco HC Hsub Hpf).
    rewrite iszs_cons, isz_pkg in Hf.
    rewrite (IH vh vtbl f known p _ st (b + N.of_nat (isz (IPkg seg k n elems))) (lenN dpre + lenN (enc_item (IPkg seg k n elems))) data (dpre ++ enc_item (IPkg seg k n elems)) dpost Hnth
               ltac:(rewrite Hdata, enc_items_cons, <- !app_assoc; reflexivity) ltac:(rewrite lenN_app; reflexivity) HDrest Hok ltac:(lia)).
    cbn [ventries flat_map ventry]. rewrite Hnm, <- !app_assoc. reflexivity.
  - apply forallb_item_cons in Hok. destruct Hok as [Hd Hok]. cbn [item_okb] in Hd. apply andb_prop in Hd. destruct Hd as [_ Hta].
    rewrite lay5_cons in HD |- *. rewrite map_app, fold_left_app. apply Forall_app in HD. destruct HD as [HDit HDrest].
    cbn [lay5_item map ridx fold_left] in HDit |- *.
    pose proof (Forall_inv HDit) as DS. destruct (Desc_inv _ _ _ _ _ DS) as (PS & KS & HDk).
    rewrite leaf_row_idx, len_cst_pays in KS.
    pose proof (cst_view vh vtbl data Hnth ta (b + 1) (lenN dpre + slo sk) (dpre ++ enc_op (sk_op sk)) (enc_items rest ++ dpost)
                  ltac:(rewrite Hdata, enc_items_cons, enc_stmt, <- !app_assoc; reflexivity)
                  ltac:(rewrite lenN_app; reflexivity) Hta HDk) as HC.
    destruct (view_obj t g pl b _ H PS ltac:(destruct sk; discriminate)) as (co & Hco & Epco & Hkco).
    rewrite KS in Hkco.
    rewrite (walkF_stmt t tables f known p es st b co sk _ ta Hco ltac:(rewrite (pay_op _ _ Epco); reflexivity)
               ltac:(rewrite (pay_info _ _ Epco); reflexivity) ltac:(rewrite (pay_val _ _ Epco); reflexivity) Hkco HC Hta).
    rewrite iszs_cons, isz_stmt in Hf.
    rewrite (IH vh vtbl f known p _ _ (b + N.of_nat (isz (IStmt sk ta))) (lenN dpre + lenN (enc_item (IStmt sk ta))) data (dpre ++ enc_item (IStmt sk ta)) dpost Hnth
               ltac:(rewrite Hdata, enc_items_cons, <- !app_assoc; reflexivity) ltac:(rewrite lenN_app; reflexivity) HDrest Hok ltac:(lia)).
    cbn [ventries vstmts flat_map ventry stmt_of app]. rewrite <- app_assoc. reflexivity.
Qed.

(** ---- the whole view ---- *)
Theorem view_f9 its hdr : Desc g pl (root_tree5 its) -> forallb item_okb its = true -> (6 + iszs its <= length pl)%nat ->
  tables = [hdr ++ enc_items its] -> lenN hdr = aml_sizeofSDTHeader ->
  view t tables = ventries [] its ++ anon [] (vstmts its).
Proof.
  intros HD Hok Hlen Htb Hhdr. unfold view. set (known := [] :: collect_known t (pool_fuel t) 0 []).
  unfold pool_fuel at 1. rewrite walk_S.
  destruct (Desc_inv _ _ _ _ _ HD) as (P0 & K0 & HDk). apply Forall_app in HDk. destruct HDk as [HDl HD2].
  destruct (view_obj t g pl 0 _ H P0 ltac:(discriminate)) as (so & Hso & _ & Hkso).
  rewrite Hso, Hkso, K0, map_app, fold_left_app.
  rewrite (fold_leaves (length (t_pool t)) known [] (map ridx dflt_leaves)).
  2:{ intros c Hc. apply in_map_iff in Hc. destruct Hc as (r & <- & Hr). rewrite Forall_forall in HDl. pose proof (HDl r Hr) as Dr.
      unfold dflt_leaves in Hr. cbn [In] in Hr.
      destruct Hr as [ <- | [ <- | [ <- | [ <- | [ <- | [] ] ] ] ] ];
        (destruct (Desc_inv _ _ _ _ _ Dr) as (Pc & Kc & _); destruct (view_obj t g pl _ _ H Pc ltac:(discriminate)) as (co & Hco & Epco & Hkco);
         exists co; split; [exact Hco|]; split; [rewrite (pay_op _ _ Epco); reflexivity|];
         split; [rewrite (pay_name _ _ Epco); reflexivity|]; rewrite Hkco; exact Kc). }
  rewrite (vspec_all its 1 0 (S (length (t_pool t))) known [] [] [] _ _ (hdr ++ enc_items its) hdr [] ltac:(rewrite Htb; reflexivity) ltac:(rewrite app_nil_r; reflexivity) ltac:(symmetry; exact Hhdr) HD2 Hok).
  2:{ rewrite <- (rep_len_pool _ _ _ H). lia. }
  cbn [app]. reflexivity.
Qed.
End ViewF1.
