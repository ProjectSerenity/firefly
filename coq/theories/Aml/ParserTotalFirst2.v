(** The first pass with frames (mode parseModeSkipAmbiguousBlocks): the specifications [T_*] say, beside what [S_*] of
    ParserTotalFirst.v say about the measure, what one parseNextObject leaves alone ([Fw], [SSBx]) and the shape of the
    object it finishes ([akind], [shape]); [tstep_*] are the steps of the fuel induction, [list_spec2] the loop of
    parseObjectList carrying an invariant of the object boundaries. *)
From Coq Require Import NArith Arith List Bool Lia.
From Coq Require Import ZifyBool ZifyN ZifyNat.
From FF Require Import Lib.Word Gen.Consts_device_acpi_aml Gen.Consts_aml_tree Aml.Stream Aml.Lex Aml.LexProofs
  Aml.Tree Aml.TreeSpec Aml.TreeProofs Aml.TreeProofsOps Aml.Parser
  Aml.ParserTotalTree Aml.ParserTotalTree2 Aml.ParserTotalLex Aml.ParserTotalTable Aml.ParserTotalBase Aml.ParserTotalLeaf
  Aml.ParserTotalFrame Aml.ParserTotalLeaf2 Aml.ParserTotalFirst Aml.ParserTotalConn Aml.ParserTotalReloc Aml.ParserTotalDefer Aml.ParserTotalDeferM Aml.ParserTotalBenign.
Import ListNotations.
Local Open Scope N_scope.

(** ---- a frame that ignores amlOffset / pkgEnd / index ---- *)
Definition pnw (o o' : Obj) : Prop :=
  o_opcode o' = o_opcode o /\ o_infoIndex o' = o_infoIndex o /\ o_tableHandle o' = o_tableHandle o /\ o_name o' = o_name o.

Lemma pnw_refl o : pnw o o. Proof. unfold pnw. tauto. Qed.
Lemma pnw_trans a b c : pnw a b -> pnw b c -> pnw a c. Proof. unfold pnw. intuition congruence. Qed.
Lemma pnv_pnw (o o' : Obj) : pnv o o' -> pnw o o'. Proof. unfold pnv, pnw. tauto. Qed.

Definition keepw (P : N -> Prop) (s : pstate) (g : ghost) (s' : pstate) : Prop :=
  forall i o, glive g i -> tget (p_tree s) i = Some o ->
    exists o', tget (p_tree s') i = Some o' /\ pnw o o' /\ (~ P i -> o_value o' = o_value o).

Record Fw (P X : N -> Prop) (s : pstate) (g : ghost) (s' : pstate) (g' : ghost) : Prop := mkFw {
  fw_keep : keepw P s g s';
  fw_kids : Fk X NoP g g'
}.

Lemma Fw_refl P X s g : Fw P X s g s g.
Proof. constructor; [intros i o _ Ho; exists o; split; auto; split; [apply pnw_refl|auto]|apply Fk_refl]. Qed.

Lemma Fw_of_Fr (P X : N -> Prop) s g s' g' : Fr P X NoP s g s' g' -> Fw P X s g s' g'.
Proof.
  intros [K G]. constructor; [|exact G]. intros i o Hi Ho. destruct (K i o Hi Ho) as (o' & Ho' & E & V).
  exists o'. split; [exact Ho'|]. split; [apply pnv_pnw; exact E|exact V].
Qed.

Lemma Fw_trans (P P1 X X1 : N -> Prop) s g s1 g1 s2 g2 :
  Fw P X s g s1 g1 -> Fw P1 X1 s1 g1 s2 g2 -> (forall x, glive g x -> glive g1 x) ->
  (forall i, glive g i -> P1 i -> P i) -> (forall y, glive g y -> X1 y -> X y) -> Fw P X s g s2 g2.
Proof.
  intros [K1 G1] [K2 G2] Hl Hp Hx. constructor.
  - intros i o Hi Ho. destruct (K1 i o Hi Ho) as (o1 & Ho1 & E1 & V1). destruct (K2 i o1 (Hl _ Hi) Ho1) as (o2 & Ho2 & E2 & V2).
    exists o2. split; [exact Ho2|]. split; [eapply pnw_trans; eauto|]. intros Hn. rewrite V2; [apply V1; exact Hn|].
    intros F. apply Hn. apply Hp; auto.
  - eapply Fk_trans; eauto.
Qed.

Lemma Fw_weaken (P P' X X' : N -> Prop) s g s' g' :
  (forall i, glive g i -> P i -> P' i) -> (forall y, glive g y -> X y -> X' y) -> Fw P X s g s' g' -> Fw P' X' s g s' g'.
Proof.
  intros Hp Hx [K G]. constructor.
  - intros i o Hi Ho. destruct (K i o Hi Ho) as (o' & Ho' & E1 & V1). exists o'. split; [exact Ho'|]. split; [exact E1|].
    intros Hn. apply V1. intros F. apply Hn. apply Hp; auto.
  - intros y Hy HE. destruct (G y Hy HE) as (A & B). split; [exact A|]. intros HX'. apply B. intros H1. apply HX'. apply Hx; auto.
Qed.

(** a write to one object that keeps opcode, row, handle and name *)
Lemma Fw_tset (P X : N -> Prop) s0 g0 s1 g1 p f :
  Fw P X s0 g0 s1 g1 -> (forall o, pnw o (f o)) -> (glive g0 p -> P p \/ forall o, o_value (f o) = o_value o) ->
  Fw P X s0 g0 (with_tree s1 (tset (p_tree s1) p f)) g1.
Proof.
  intros [K G] Hf Hp. constructor; [|exact G]. intros i o Hi Ho. destruct (K i o Hi Ho) as (o1 & Ho1 & E1 & V1).
  cbn [p_tree with_tree]. rewrite get_tset, Ho1. cbn [option_map]. destruct (N.eqb_spec i p) as [->|Hne].
  - exists (f o1). split; [reflexivity|]. split; [eapply pnw_trans; [exact E1|apply Hf]|]. intros Hn.
    destruct (Hp Hi) as [F|F]; [contradiction|]. rewrite F. apply V1. exact Hn.
  - exists o1. auto.
Qed.

Lemma Fw_tree_eq P X s0 g0 s1 g1 s2 : Fw P X s0 g0 s1 g1 -> p_tree s2 = p_tree s1 -> Fw P X s0 g0 s2 g1.
Proof. intros [K G] E. constructor; [|exact G]. intros i o Hi Ho. rewrite E. apply (K i o Hi Ho). Qed.

Lemma Fw_new (P X : N -> Prop) s0 g0 s1 g1 (t2 : T) g2 p :
  Fw P X s0 g0 s1 g1 -> (forall x, glive g0 x -> glive g1 x) -> ~ glive g1 p ->
  (forall i o, i <> p -> tget (p_tree s1) i = Some o -> tget t2 i = Some o) ->
  (forall y, kids g2 y = kids g1 y) ->
  Fw P X s0 g0 (with_tree s1 t2) g2.
Proof.
  intros [K G] Hl Hp Hfw Hk. constructor.
  - intros i o Hi Ho. destruct (K i o Hi Ho) as (o1 & Ho1 & E1). exists o1. split; [|exact E1].
    cbn [p_tree with_tree]. apply Hfw; [|exact Ho1]. intros ->. apply Hp. apply Hl. exact Hi.
  - intros y Hy HE. rewrite Hk. apply (G y Hy HE).
Qed.

Lemma Fw_append (P X : N -> Prop) s0 g0 s1 g1 (t2 : T) g2 o a :
  Fw P X s0 g0 s1 g1 -> pframe (p_tree s1) t2 ->
  kids g2 o = kids g1 o ++ [a] -> (forall q, q <> o -> kids g2 q = kids g1 q) ->
  (glive g0 o -> X o) ->
  Fw P X s0 g0 (with_tree s1 t2) g2.
Proof.
  intros [K G] Hpf Ko Kq Hx. constructor.
  - intros i o0 Hi Ho. destruct (K i o0 Hi Ho) as (o1 & Ho1 & E1 & V1). destruct (proj2 Hpf _ _ Ho1) as (o2 & Ho2 & E2).
    destruct (pay_eq_pnv _ _ E2) as (E2' & V2). exists o2. split; [exact Ho2|]. split; [eapply pnw_trans; [exact E1|apply pnv_pnw; exact E2']|].
    intros Hn. rewrite V2. apply V1. exact Hn.
  - intros y Hy HE. destruct (G y Hy HE) as ((e & A) & B). destruct (N.eq_dec y o) as [->|Hne].
    + split; [exists (e ++ [a]); rewrite Ko, A, app_assoc; reflexivity|]. intros HX. exfalso. apply HX. apply Hx. exact Hy.
    + rewrite (Kq y Hne). split; [exists e; exact A|exact B].
Qed.

(** the stack entries that were pushed are ScopeBlocks *)
Definition SSBx (s s' : pstate) : Prop := forall y, In y (p_scopeStack s') -> In y (p_scopeStack s) \/ is_sb s' y.

Lemma SSBx_same s s' : p_scopeStack s' = p_scopeStack s -> SSBx s s'.
Proof. intros E y Hy. left. rewrite <- E. exact Hy. Qed.

(** ---- the kinds of argument objects the shape facts are about ---- *)
Definition rowis (op : N) (o : Obj) : Prop := opcodeTableIndex op true = Some (o_infoIndex o).

Definition akind (ty : N) (s : pstate) (g : ghost) (a : N) : Prop :=
  exists o, tget (p_tree s) a = Some o /\
    (ty = aml_pArgTypeNameString -> kids g a = [] /\ o_opcode o = aml_pOpIntNamePath /\ rowis aml_pOpIntNamePath o /\
                                    exists tbl sl, o_value o = Some (VBytes tbl sl)) /\
    (ty = aml_pArgTypeByteData -> kids g a = [] /\ o_opcode o = aml_pOpBytePrefix /\ rowis aml_pOpBytePrefix o /\ exists v, o_value o = Some (VNum v)) /\
    (ty = aml_pArgTypeTermList -> kids g a = [] /\ o_opcode o = aml_pOpIntScopeBlock).

(** an argument object that is live, not written and not appended to keeps its kind *)
Lemma akind_keep ty (P X : N -> Prop) s g s' g' a :
  Fw P X s g s' g' -> glive g a -> ~ P a -> ~ X a -> akind ty s g a -> akind ty s' g' a.
Proof.
  intros [K G] Hl HP HX (o & Ho & A & B & C). destruct (K a o Hl Ho) as (o' & Ho' & (E1 & E2 & E3 & E4) & V).
  specialize (V HP). exists o'. split; [exact Ho'|].
  assert (Ek : kids g' a = kids g a) by (destruct (G a Hl (fun F => F)) as (_ & Hex); apply Hex; auto).
  unfold rowis in *. rewrite E1, E2, V, Ek. auto.
Qed.

Ltac pnw_tac := let o := fresh "o" in intros o; unfold pnw; cbn; tauto.

(** ---- the specifications ---- *)
Definition T_name (fuel : nat) : Prop := forall s g top rest,
  FI s g -> p_scopeStack s = top :: rest -> room s ->
  spec True (parseNamePathOrMethodCall fuel) s g (fun res s' g' =>
    Phi s' <= Phi s + 2 /\ (res = ROk -> Phi s' <= Phi s /\ r_offset (p_r s) < r_offset (p_r s')) /\
    Fw NoP (eq top) s g s' g' /\ p_scopeStack s' = p_scopeStack s /\ p_handle s' = p_handle s).

Lemma tstep_name fuel : T_name (S fuel).
Proof.
  intros s g top rest H Est Hroom. unfold spec. cbn [parseNamePathOrMethodCall].
  pose proof (fi_rok _ _ H) as Hrok. pose proof (room_lp _ Hroom) as Hlp.
  assert (Htop : glive g top) by (pose proof (fi_scopes _ _ H) as F; rewrite Est in F; inversion F; auto).
  assert (F0 : Fw NoP (eq top) s g s g) by apply Fw_refl.
  apply wp_bind, wp_get. apply wp_bind, wp_get.
  apply wp_bind. apply wp_namestring; auto. intros v ok r1 Hadv Hok.
  assert (H1 : FI (with_r s r1) g) by (apply FI_adv; auto).
  assert (A1 : at_ s (with_r s r1) 0 0) by (apply at_adv0; [apply at_refl; auto|exact Hadv]).
  assert (F1 : Fw NoP (eq top) s g (with_r s r1) g) by (eapply Fw_tree_eq; [exact F0|reflexivity]).
  destruct ok; cbn [negb].
  2:{ apply wp_ret. exists g. destruct (fin_at s g _ g 0 0 H1 A1 (gext_refl g)) as (G1 & G2 & G3).
      split; auto. split; auto. split; [lia|]. split; [discriminate|]. split; [exact F1|]. split; reflexivity. }
  specialize (Hok eq_refl).
  assert (A1' : at_ s (with_r s r1) 1 0).
  { eapply at_r; [apply at_refl; auto|destruct Hadv as ((_ & E & _) & _); exact E|lia|destruct Hadv as (_ & _ & L); exact L]. }
  apply wp_bind, wp_get. rewrite (fi_skip _ _ H1). cbn [negb].
  apply wp_bind. eapply new_step2; [exact H1|apply (newokb_sound aml_pOpIntNamePathOrMethodCall eq_refl)| |].
  { unfold lp in *. pcbn. lia. }
  intros p t2 g2 po H2 Hext2 Hfresh2 Hlive2 Hroot2 Hkids2 Hpo _ _ _ Hl2 Hfw2 Hks2 _.
  set (s2 := with_tree (with_r s r1) t2) in *.
  assert (A2 : at_ s s2 1 1) by (eapply at_new'; [exact A1'|exact Hl2|reflexivity]).
  assert (F2 : Fw NoP (eq top) s g s2 g2) by (apply (Fw_new NoP (eq top) s g (with_r s r1) g t2 g2 p F1 (fun x Hx => Hx) Hfresh2 Hfw2 Hks2)).
  wwrf H2 Hlive2. intros o3 Hg3 Hlo3 H3.
  match type of H3 with FI ?st _ => assert (F3 : Fw NoP (eq top) s g st g2) by (apply Fw_tset; [exact F2|pnw_tac|intros h; contradiction]) end.
  wwrf H3 Hlive2. intros o4 Hg4 Hlo4 H4.
  match type of H4 with FI ?st _ => set (s4 := st) in * end.
  assert (F4 : Fw NoP (eq top) s g s4 g2) by (apply Fw_tset; [exact F3|pnw_tac|intros h; contradiction]).
  assert (A4 : at_ s s4 1 1) by (apply at_tset; apply at_tset; exact A2).
  assert (Est4 : p_scopeStack s4 = top :: rest) by exact Est.
  apply wp_bind. eapply wp_scopeCurrent; [exact Est4|].
  rewrite (FI_ObjectAt _ _ _ H4 (ge_live _ _ Hext2 _ Htop)).
  apply wp_bind. eapply (append_step _ top p s4 g2 g);
    [exact H4|apply (R_gwf _ _ (fi_R _ _ H))|exact Hext2|exact Htop|exact Hfresh2|exact Hlive2|exact Hroot2|].
  intros t5 H5 Hext5 Hpf5 Hk5 Hk5'.
  assert (F5 : Fw NoP (eq top) s g (with_tree s4 t5) (astep g2 (OpAppend top p))).
  { apply (Fw_append NoP (eq top) s g s4 g2 t5 _ top p F4 Hpf5 Hk5 Hk5'). intros _. reflexivity. }
  apply wp_ret. exists (astep g2 (OpAppend top p)).
  destruct (fin_at s g _ _ 1 1 H5 (at_pframe _ _ _ _ _ A4 Hpf5) Hext5) as (G1 & G2 & G3).
  split; auto. split; auto. split; [lia|]. split; [intros _; split; [lia|exact Hok]|]. split; [exact F5|]. split; reflexivity.
Qed.

Lemma bytesValue_bytes tbl sl : exists tbl' sl', bytesValue tbl sl = VBytes tbl' sl'.
Proof. unfold bytesValue. destruct (s_ptr sl); eauto. Qed.

Lemma parseSimpleArg_obj argTy s p r s' : parseSimpleArg argTy s = Ok ((Some p, r), s') ->
  exists po, tget (p_tree s') p = Some po /\ o_first po = InvalidIndex /\ o_tableHandle po = p_handle s /\
    (argTy = aml_pArgTypeByteData -> o_opcode po = aml_pOpBytePrefix /\ exists v, o_value po = Some (VNum v)) /\
    (argTy = aml_pArgTypeNameString -> o_opcode po = aml_pOpIntNamePath /\ exists tbl sl, o_value po = Some (VBytes tbl sl)).
Proof.
  unfold parseSimpleArg. intros H.
  apply bindM_ok in H. destruct H as (q & s1 & E1 & H).
  unfold newObj in E1. destruct (newObject (p_tree s) 0 (p_handle s)) as [[t1 p1]| |] eqn:En; try discriminate.
  inversion E1; subst p1 s1. clear E1. destruct (newObject_init _ _ _ _ _ En) as (o & info & Hq).
  apply bindM_ok in H. destruct H as (off & s2 & E2 & H). inversion E2; subst off s2. clear E2.
  apply bindM_ok in H. destruct H as (u3 & s3 & E3 & H). pose proof (wrf_at _ _ _ _ _ _ E3 Hq) as Hq3.
  apply bindM_ok in H. destruct H as (tbl & s4 & E4 & H). inversion E4; subst tbl s4. clear E4. cbv zeta in H.
  fold (simple_num q) in H. fold (simple_str q (N.of_nat (length (p_tables s3)) - 1)) in H.
  assert (Hnum : forall op bytes, simple_num q op bytes s3 = Ok ((Some p, r), s') ->
            p = q /\ exists v idx, tget (p_tree s') q = Some (set_infoIndex idx (set_value (Some (VNum v)) (set_opcode op (set_amlOffset (r_offset (p_r (with_tree s t1))) (init_object 0 info (p_handle s) o)))))).
  { intros op bytes E. destruct (simple_num_res _ _ _ _ _ _ _ E) as (Ea & _). inversion Ea. split; [reflexivity|]. exact (simple_num_obj _ _ _ _ _ _ _ _ E Hq3). }
  assert (Hstr : forall tb op f, simple_str q tb op f s3 = Ok ((Some p, r), s') ->
            p = q /\ exists v idx, tget (p_tree s') q = Some (set_infoIndex idx (set_value (Some (bytesValue tb v)) (set_opcode op (set_amlOffset (r_offset (p_r (with_tree s t1))) (init_object 0 info (p_handle s) o)))))).
  { intros tb op f E. destruct (simple_str_res _ _ _ _ _ _ _ _ E) as (Ea & _). inversion Ea. split; [reflexivity|]. exact (simple_str_obj _ _ _ _ _ _ _ _ _ E Hq3). }
  destruct (N.eqb_spec argTy aml_pArgTypeByteData) as [Eb|Eb].
  { destruct (Hnum aml_pOpBytePrefix 1 H) as (-> & v & idx & Hg). eexists. split; [exact Hg|]. cbn. split; [reflexivity|]. split; [reflexivity|].
    split; [intros _; split; [reflexivity|eauto]|intros E; rewrite Eb in E; discriminate]. }
  destruct (N.eqb_spec argTy aml_pArgTypeWordData) as [Ew|Ew].
  { destruct (Hnum aml_pOpWordPrefix 2 H) as (-> & v & idx & Hg). eexists. split; [exact Hg|]. cbn. split; [reflexivity|]. split; [reflexivity|].
    split; [intros E; contradiction|intros E; rewrite Ew in E; discriminate]. }
  destruct (N.eqb_spec argTy aml_pArgTypeDwordData) as [Ed|Ed].
  { destruct (Hnum aml_pOpDwordPrefix 4 H) as (-> & v & idx & Hg). eexists. split; [exact Hg|]. cbn. split; [reflexivity|]. split; [reflexivity|].
    split; [intros E; contradiction|intros E; rewrite Ed in E; discriminate]. }
  destruct (N.eqb_spec argTy aml_pArgTypeQwordData) as [Eq|Eq].
  { destruct (Hnum aml_pOpQwordPrefix 8 H) as (-> & v & idx & Hg). eexists. split; [exact Hg|]. cbn. split; [reflexivity|]. split; [reflexivity|].
    split; [intros E; contradiction|intros E; rewrite Eq in E; discriminate]. }
  destruct (N.eqb_spec argTy aml_pArgTypeString) as [Es|Es].
  { destruct (Hstr _ aml_pOpStringPrefix parseString H) as (-> & v & idx & Hg). eexists. split; [exact Hg|]. cbn. split; [reflexivity|]. split; [reflexivity|].
    split; [intros E; contradiction|intros E; rewrite Es in E; discriminate]. }
  destruct (N.eqb_spec argTy aml_pArgTypeNameString) as [Ens|Ens].
  { destruct (Hstr _ aml_pOpIntNamePath parseNameString H) as (-> & v & idx & Hg). eexists. split; [exact Hg|]. cbn. split; [reflexivity|]. split; [reflexivity|].
    split; [intros E; contradiction|intros _; split; [reflexivity|]].
    destruct (bytesValue_bytes (N.of_nat (length (p_tables s3)) - 1) v) as (tb' & sl' & Ebv). rewrite Ebv. eauto. }
  inversion H.
Qed.

(** ---- the argument objects a row promises ---- *)
Fixpoint otys_go (af : N) (i : N) (n : nat) : list N :=
  match n with
  | O => []
  | S n' => (if argType af i =? aml_pArgTypePkgLen then [] else [argType af i]) ++ otys_go af (i + 1) n'
  end.
Definition otys (af i : N) : list N := otys_go af i (N.to_nat (argCount af - i)).

Lemma otys_done af i : argCount af <= i -> otys af i = [].
Proof. intros H. unfold otys. replace (argCount af - i) with 0 by lia. reflexivity. Qed.

Lemma otys_step af i : i < argCount af ->
  otys af i = (if argType af i =? aml_pArgTypePkgLen then [] else [argType af i]) ++ otys af (i + 1).
Proof.
  intros H. unfold otys. replace (N.to_nat (argCount af - i)) with (S (N.to_nat (argCount af - (i + 1)))) by lia. reflexivity.
Qed.

Definition simple_ty (ty : N) : Prop :=
  ty = aml_pArgTypePkgLen \/ ty = aml_pArgTypeNameString \/ ty = aml_pArgTypeByteData \/ ty = aml_pArgTypeTermList.
Definition simple_from (af i : N) : Prop := forall k, i <= k -> k < argCount af -> simple_ty (argType af k).

Definition XO (g : ghost) (c : N) : N -> Prop := fun y => y = c \/ In c (kids g y).
Definition lastchild (g : ghost) (c : N) : Prop := exists par l1, kids g par = l1 ++ [c].

Definition shape (af i : N) (c : N) (s' : pstate) (g g' : ghost) : Prop :=
  exists objs, kids g' c = kids g c ++ objs /\ Forall2 (fun ty a => akind ty s' g' a) (otys af i) objs /\
    Forall (fun a => ~ glive g a) objs.

Definition okr (res : pres) : Prop := res = ROk \/ res = RShort.

Definition T_target (fuel : nat) : Prop := forall s g,
  FI s g -> room s ->
  spec True (parseTarget fuel) s g (fun '(a, res) s' g' =>
    Phi s' <= Phi s + 2 /\ (res = ROk -> Phi s' <= Phi s /\ r_offset (p_r s) < r_offset (p_r s')) /\
    fresh_root g g' a /\ res <> RShort /\
    Fw NoP NoP s g s' g' /\ SSBx s s' /\ p_handle s' = p_handle s).

Definition T_objargs (fuel : nat) : Prop := forall curObj s g,
  FI s g -> glive g curObj -> room s ->
  (forall co op fl af, tget (p_tree s) curObj = Some co -> opInfo (o_infoIndex co) = Some (op, fl, af) ->
                       has_fl af -> lastchild g curObj) ->
  (forall co, tget (p_tree s) curObj = Some co -> ext_idx (o_infoIndex co)) ->
  spec True (parseObjectArgs fuel curObj) s g (fun res s' g' =>
    Phi s' <= Phi s + 2 /\ (res = ROk -> Phi s' <= Phi s + 1) /\ res <> RShort /\
    Fw (eq curObj) (XO g curObj) s g s' g' /\ SSBx s s' /\ p_handle s' = p_handle s /\
    (res = ROk -> forall co op fl af, tget (p_tree s) curObj = Some co -> opInfo (o_infoIndex co) = Some (op, fl, af) ->
       (o_opcode co = aml_pOpMethod \/ o_opcode co = aml_pOpScope) ->
       simple_from af 0 -> hasFlag fl aml_pOpFlagDeferParsing = false -> shape af 0 curObj s' g g')).

Definition T_args (fuel : nat) : Prop := forall ii op fl af curObj argIndex s g,
  FI s g -> glive g curObj -> room s -> opInfo ii = Some (op, fl, af) -> argIndex <= 8 ->
  (has_fl af -> lastchild g curObj) ->
  (argIndex < 8 -> argType af argIndex = aml_pArgTypeFieldList -> LastNum s curObj) ->
  shielded af argIndex ->
  spec True (parseArgs fuel (op, fl, af) curObj argIndex) s g (fun res s' g' =>
    Phi s' <= Phi s + 2 /\ (res = ROk -> Phi s' <= Phi s) /\ (res = RShort -> Phi s' <= Phi s + 1) /\
    Fw (eq curObj) (XO g curObj) s g s' g' /\ SSBx s s' /\ p_handle s' = p_handle s /\
    (okr res -> simple_from af argIndex -> hasFlag fl aml_pOpFlagDeferParsing = false -> shape af argIndex curObj s' g g')).

Definition T_arg (fuel : nat) : Prop := forall op fl af curObj argTy s g,
  FI s g -> glive g curObj -> room s -> argTy <> aml_pArgTypeByteList ->
  (argTy = aml_pArgTypeFieldList -> lastchild g curObj /\ LastNum s curObj) ->
  spec True (parseArg fuel (op, fl, af) curObj argTy) s g (fun '(a, res) s' g' =>
    Phi s' <= Phi s + 2 /\ (res = ROk -> Phi s' <= Phi s /\ r_offset (p_r s) < r_offset (p_r s')) /\
    (res = RShort -> Phi s' <= Phi s + 1) /\
    fresh_root g g' a /\
    (res_short argTy -> res = RShort) /\
    (argTy = aml_pArgTypeByteData ->
       exists obj po v, a = Some obj /\ tget (p_tree s') obj = Some po /\ o_value po = Some (VNum v)) /\
    Fw (eq curObj) (fun y => argTy = aml_pArgTypeFieldList /\ XO g curObj y) s g s' g' /\ SSBx s s' /\ p_handle s' = p_handle s /\
    (forall obj, a = Some obj -> okr res -> akind argTy s' g' obj) /\
    (argTy = aml_pArgTypePkgLen -> a = None) /\
    (argTy = aml_pArgTypeTermList -> okr res -> a <> None) /\
    ((argTy = aml_pArgTypeNameString \/ argTy = aml_pArgTypeByteData) -> res = ROk -> a <> None) /\
    (argTy = aml_pArgTypePkgLen -> res = RShort -> hasFlag fl aml_pOpFlagDeferParsing = true) /\
    (argTy = aml_pArgTypeFieldList -> res <> ROk) /\
    ((argTy = aml_pArgTypeNameString \/ argTy = aml_pArgTypeByteData) -> res <> RShort)).


Lemma wp_run2 {A} P (m : M A) s (Q : A -> pstate -> Prop) :
  wp P m s (fun a s' => m s = Ok (a, s') -> Q a s') -> wp P m s Q.
Proof. unfold wp. destruct (m s) as [[a s']| |]; auto. Qed.

Lemma kids_nil_of_first s g p po : FI s g -> glive g p -> tget (p_tree s) p = Some po -> o_first po = InvalidIndex -> kids g p = [].
Proof.
  intros H Hl Hp Hf. pose proof (fi_R _ _ H) as HR. destruct (FI_live_get _ _ _ H Hl) as (o & Ho & Hlo). assert (o = po) by congruence. subst o.
  destruct (R_kids _ _ HR _ _ Hp Hlo) as (Hfirst & _). destruct (kids g p) as [|c l] eqn:Ek; [reflexivity|exfalso].
  cbn [hd] in Hfirst. assert (Hin : In c (kids g p)) by (rewrite Ek; left; reflexivity).
  destruct ((R_gwf _ _ HR) _ _ Hin) as (_ & Hlc). destruct (FI_live_get _ _ _ H Hlc) as (co & Hco & _).
  apply (R_pos_not_Inv _ _ HR _ _ Hco). congruence.
Qed.

Ltac ty_ne := let E := fresh in intros E; first [discriminate E | (rewrite E in *; discriminate) | (subst; discriminate)].

Lemma tstep_arg fuel : T_target fuel -> T_arg (S fuel).
Proof.
  intros IHt op fl af curObj argTy s g H Hl Hroom Hnbl Hfl. unfold spec. cbn [parseArg].
  pose proof (fi_rok _ _ H) as Hrok. pose proof (room_lp _ Hroom) as Hlp.
  assert (F0 : Fw (eq curObj) (fun y => argTy = aml_pArgTypeFieldList /\ XO g curObj y) s g s g) by apply Fw_refl.
  destruct ((argTy =? aml_pArgTypeByteData) || (argTy =? aml_pArgTypeWordData) || (argTy =? aml_pArgTypeDwordData) ||
            (argTy =? aml_pArgTypeQwordData) || (argTy =? aml_pArgTypeString) || (argTy =? aml_pArgTypeNameString)) eqn:Esimple.
  { apply wp_run2. eapply wp_weaken; [apply (parseSimpleArg_spec2 True argTy s g H)|auto|]. { lia. }
    intros [a res] s' (g' & F1 & F2 & F3 & F4 & F5 & F6 & F7 & F8) Erun. exists g'. split; auto. split; auto.
    pose proof (at_Ext_FI s g s' g' 0 1 F2 F1 F3) as PA. pose proof (ex_off _ _ _ _ F2) as Eoff.
    assert (Hh : p_handle s' = p_handle s) by (apply (parseSimpleArg_hsame argTy s _ s' Erun)).
    split; [lia|]. split. { intros Hr. specialize (F5 Hr). pose proof (at_Ext_FI s g s' g' 1 1 F2 F1 F3). split; [lia|exact F5]. }
    split; [intros; lia|].
    split. { destruct a as [obj|]; [destruct F6 as (A & B & C & D); cbn; auto|exact I]. }
    split. { kill_ty. }
    split.
    { intros E. destruct a as [obj|].
      - destruct F6 as (_ & _ & _ & D & _). destruct (D E) as (po & v & idx & Hpo & Hv & _). exists obj, po, v. auto.
      - destruct F6 as (_ & D). contradiction. }
    split. { apply Fw_of_Fr. eapply Fr_weaken; [| | |exact F7]; [intros i _ []|intros y _ []|auto]. }
    split; [apply SSBx_same; exact F4|]. split; [exact Hh|].
    split.
    { intros obj Ea _. subst a. destruct F6 as (A & B & C & D1 & D2).
      destruct (parseSimpleArg_obj argTy s obj res s' Erun) as (po & Hpo & Hfirst & Hhd & K1 & K2).
      assert (Hkn : kids g' obj = []) by (eapply kids_nil_of_first; eauto).
      exists po. split; [exact Hpo|].
      split.
      { intros E. destruct (K2 E) as (Eop & Ev). split; [exact Hkn|]. split; [exact Eop|]. split; [|exact Ev].
        destruct (D2 E) as (po' & idx & Hpo' & Hidx & Hii). assert (po' = po) by congruence. subst po'. unfold rowis. rewrite Hidx, Hii. reflexivity. }
      split.
      { intros E. destruct (K1 E) as (Eop & Ev). split; [exact Hkn|]. split; [exact Eop|]. split; [|exact Ev].
        destruct (D1 E) as (po' & v & idx & Hpo' & _ & Hidx & Hii). assert (po' = po) by congruence. subst po'. unfold rowis. rewrite Hidx, Hii. reflexivity. }
      intros E. exfalso. subst argTy. vm_compute in Esimple. discriminate. }
    split. { intros E. exfalso. subst argTy. vm_compute in Esimple. discriminate. }
    split. { intros E. exfalso. subst argTy. vm_compute in Esimple. discriminate. }
    split.
    { intros _ Hr Ea. subst a. destruct F6 as (Hrf & _). rewrite Hrf in Hr. discriminate. }
    split. { intros E. exfalso. subst argTy. vm_compute in Esimple. discriminate. }
    split. { intros E. exfalso. subst argTy. vm_compute in Esimple. discriminate. }
    intros _. exact F8. }
  apply N.eqb_neq in Hnbl. rewrite Hnbl.
  (* the tail of the postcondition for the results without an object *)
  assert (Fin0 : forall (res : pres) s' g', argTy <> aml_pArgTypeByteData -> argTy <> aml_pArgTypeNameString ->
            (argTy = aml_pArgTypeTermList -> ~ okr res) ->
            (argTy = aml_pArgTypePkgLen -> res = RShort -> hasFlag fl aml_pOpFlagDeferParsing = true) ->
            (argTy = aml_pArgTypeFieldList -> res <> ROk) ->
            Fw (eq curObj) (fun y => argTy = aml_pArgTypeFieldList /\ XO g curObj y) s g s' g' -> SSBx s s' -> p_handle s' = p_handle s ->
            (argTy = aml_pArgTypeByteData -> exists obj po v, (None : option N) = Some obj /\ tget (p_tree s') obj = Some po /\ o_value po = Some (VNum v)) /\
            Fw (eq curObj) (fun y => argTy = aml_pArgTypeFieldList /\ XO g curObj y) s g s' g' /\ SSBx s s' /\ p_handle s' = p_handle s /\
            (forall obj, (None : option N) = Some obj -> okr res -> akind argTy s' g' obj) /\
            (argTy = aml_pArgTypePkgLen -> (None : option N) = None) /\
            (argTy = aml_pArgTypeTermList -> okr res -> (None : option N) <> None) /\
            ((argTy = aml_pArgTypeNameString \/ argTy = aml_pArgTypeByteData) -> res = ROk -> (None : option N) <> None) /\
            (argTy = aml_pArgTypePkgLen -> res = RShort -> hasFlag fl aml_pOpFlagDeferParsing = true) /\
            (argTy = aml_pArgTypeFieldList -> res <> ROk) /\
            ((argTy = aml_pArgTypeNameString \/ argTy = aml_pArgTypeByteData) -> res <> RShort)).
  { intros res s' g' N1 N2 N3 N4 N5 Ffw Hss Hh. split; [intros E; contradiction|]. split; [exact Ffw|]. split; [exact Hss|]. split; [exact Hh|].
    split; [intros obj E; discriminate|]. split; [reflexivity|]. split; [intros E Hr; exfalso; apply (N3 E Hr)|].
    split; [intros [E|E]; contradiction|]. split; [exact N4|]. split; [exact N5|intros [E|E]; contradiction]. }
  destruct (argTy =? aml_pArgTypePkgLen) eqn:Epl.
  { apply N.eqb_eq in Epl.
    assert (Nb : argTy <> aml_pArgTypeByteData) by ty_ne. assert (Nn : argTy <> aml_pArgTypeNameString) by ty_ne.
    assert (Nt : argTy = aml_pArgTypeTermList -> forall r : pres, ~ okr r) by (intros E; exfalso; rewrite Epl in E; discriminate).
    apply wp_bind, wp_get.
    apply wp_bind. apply wp_pkglen; auto. intros pkgLen ok r1 Hadv Hok Hnok.
    assert (H1 : FI (with_r s r1) g) by (apply FI_adv; auto).
    assert (A1 : at_ s (with_r s r1) 0 0) by (apply at_adv0; [apply at_refl; auto|exact Hadv]).
    assert (F1 : Fw (eq curObj) (fun y => argTy = aml_pArgTypeFieldList /\ XO g curObj y) s g (with_r s r1) g) by (eapply Fw_tree_eq; [exact F0|reflexivity]).
    destruct ok; cbn [negb].
    2:{ apply wp_ret. exists g. destruct (fin_at s g _ g 0 0 H1 A1 (gext_refl g)) as (G1 & G2 & G3).
        split; auto. split; auto. split; [lia|]. split; [discriminate|]. split; [discriminate|]. split; [exact I|].
        split; [kill_ty|]. apply (Fin0 RFailed (with_r s r1) g Nb Nn (fun E => Nt E _)); [intros _ E; discriminate|intros _; discriminate|exact F1|apply SSBx_same; reflexivity|reflexivity]. }
    destruct (Hok eq_refl) as (Hlt1 & Hpl).
    apply wp_bind, wp_get. rewrite (fi_skip _ _ H1). cbn [negb andb].
    destruct (hasFlag fl aml_pOpFlagDeferParsing) eqn:Edf.
    - wwrf H1 Hl. intros o2 Hg2 Hlo2 H2.
      apply wp_bind. apply wp_ru.
      match type of H2 with FI ?st _ => set (s2 := st) in * end.
      assert (F2 : Fw (eq curObj) (fun y => argTy = aml_pArgTypeFieldList /\ XO g curObj y) s g s2 g).
      { apply Fw_tset; [exact F1|pnw_tac|intros _; right; intros o; reflexivity]. }
      assert (A2 : at_ s s2 0 0) by (apply at_tset; exact A1).
      set (o3 := w32 (r_offset (p_r s) + pkgLen)).
      assert (H3 : FI (with_r s2 (setOffset (p_r s2) o3)) g) by (apply FI_with_r; [exact H2|apply rok_setOffset, (fi_rok _ _ H2)]).
      pose proof (at_skip_pkg s s2 pkgLen Hrok (fi_rok _ _ H2) A2 Hpl) as A3.
      apply wp_ret. exists g. destruct (fin_at s g _ g 0 0 H3 A3 (gext_refl g)) as (G1 & G2 & G3).
      split; auto. split; auto. split; [lia|]. split; [discriminate|]. split; [intros _; lia|]. split; [exact I|].
      split; [kill_ty|]. apply (Fin0 RShort _ g Nb Nn (fun E => Nt E _)); [intros _ _; reflexivity|intros _; discriminate|eapply Fw_tree_eq; [exact F2|reflexivity]|apply SSBx_same; reflexivity|reflexivity].
    - apply wp_bind. apply wp_pushPkgEnd.
      set (e := w32 (r_offset (p_r s) + pkgLen)).
      destruct (push_pkg_step s g r1 e H1 A1 Hlt1) as (H2 & E2 & P2 & O2).
      set (s2 := with_r (with_pkgEndStack (with_r s r1) (e :: p_pkgEndStack (with_r s r1))) (fst (setPkgEnd (p_r (with_r s r1)) e))) in *.
      apply wp_ret. exists g. split; auto. split; auto. split; [lia|].
      split. { intros _. split; [lia|exact O2]. }
      split; [intros _; lia|]. split; [exact I|]. split; [kill_ty|].
      apply (Fin0 _ s2 g Nb Nn (fun E => Nt E _)); [intros _ E; destruct (snd (setPkgEnd (p_r (with_r s r1)) e)); discriminate
                        |intros E; rewrite Epl in E; discriminate|eapply Fw_tree_eq; [exact F1|reflexivity]|apply SSBx_same; reflexivity|reflexivity]. }
  destruct (argTy =? aml_pArgTypeFieldList) eqn:Efl.
  { apply N.eqb_eq in Efl. destruct (Hfl Efl) as ((par & l1 & Hpar) & (co & lo & v & HLN)).
    assert (Hpar' : kids g par = l1 ++ curObj :: []) by exact Hpar.
    assert (Nb : argTy <> aml_pArgTypeByteData) by ty_ne. assert (Nn : argTy <> aml_pArgTypeNameString) by ty_ne.
    apply wp_bind. apply wp_run2. eapply wp_weaken; [apply (parseFieldElements_spec2 curObj par l1 [] s g H Hpar' Hroom)|intros []|].
    { exists co, lo, v. exact HLN. }
    intros res s' (g' & F1 & F2 & (F3 & F4 & F5 & F6 & F7) & Ffr & (new & Hnew & _)) Erun. apply wp_ret. exists g'. split; auto. split; auto.
    split; [exact F3|]. split; [intros Hr; contradiction|]. split; [intros Hr; specialize (F4 Hr); lia|]. split; [exact I|].
    split; [kill_ty|].
    assert (Hin : In curObj (kids g par)) by (rewrite Hpar; apply in_or_app; right; left; reflexivity).
    apply (Fin0 res s' g' Nb Nn).
    - intros E. exfalso. rewrite Efl in E. discriminate.
    - intros E. exfalso. rewrite Efl in E. discriminate.
    - intros _. exact F5.
    - apply Fw_of_Fr. apply (Fr_unE (eq curObj) (fun y => argTy = aml_pArgTypeFieldList /\ XO g curObj y) (EP par) s g s' g').
      + eapply Fr_weaken; [| | |exact Ffr]; [intros i _ []|intros y _ E; unfold XC in E; split; [exact Efl|left; exact E]|auto].
      + intros y. unfold EP. destruct (N.eq_dec y par); [left|right]; auto.
      + intros y Hy E. unfold EP in E. subst y. split; [split; [exact Efl|right; exact Hin]|].
        exists new. rewrite Hnew, Hpar, app_nil_r, <- app_assoc. reflexivity.
    - apply SSBx_same. exact F6.
    - exact (parseFieldElements_hsame curObj s res s' Erun). }
  destruct ((argTy =? aml_pArgTypeTermArg) || (argTy =? aml_pArgTypeDataRefObj)) eqn:Eta.
  { assert (Nb : argTy <> aml_pArgTypeByteData) by ty_ne. assert (Nn : argTy <> aml_pArgTypeNameString) by ty_ne.
    apply wp_bind, wp_get. rewrite (fi_skip _ _ H). apply wp_ret. exists g. split; auto. split; [apply Ext_refl|].
    split; [lia|]. split; [discriminate|]. split; [intros _; lia|]. split; [exact I|]. split; [reflexivity|].
    apply (Fin0 RShort s g Nb Nn).
    - intros E. exfalso. subst argTy. vm_compute in Eta. discriminate.
    - intros E. exfalso. rewrite E in Epl. discriminate.
    - intros E. exfalso. rewrite E in Efl. discriminate.
    - exact F0.
    - apply SSBx_same. reflexivity.
    - reflexivity. }
  destruct (argTy =? aml_pArgTypeTermList) eqn:Etl.
  { apply N.eqb_eq in Etl.
    apply wp_bind. eapply new_step2; [exact H|apply (newokb_sound aml_pOpIntScopeBlock eq_refl)|lia|].
    intros p t2 g2 po H2 Hext2 Hfresh2 Hlive2 Hroot2 Hkids2 Hpo Hpop _ _ Hl2 Hfw2 Hks2 _.
    set (s2 := with_tree s t2) in *.
    assert (A2 : at_ s s2 0 1) by (eapply at_new'; [apply at_refl; auto|exact Hl2|reflexivity]).
    assert (F2 : Fw (eq curObj) (fun y => argTy = aml_pArgTypeFieldList /\ XO g curObj y) s g s2 g2).
    { apply (Fw_new _ _ s g s g t2 g2 p F0 (fun x Hx => Hx) Hfresh2 Hfw2 Hks2). }
    apply wp_bind, wp_get.
    wwrf H2 Hlive2. intros o3 Hg3 Hlo3 H3.
    match type of H3 with FI ?st _ => set (s3 := st) in * end.
    assert (F3 : Fw (eq curObj) (fun y => argTy = aml_pArgTypeFieldList /\ XO g curObj y) s g s3 g2).
    { apply Fw_tset; [exact F2|pnw_tac|intros h; contradiction]. }
    assert (A3 : at_ s s3 0 1) by (apply at_tset; exact A2).
    destruct (FI_live_get _ _ _ H3 Hlive2) as (o4 & Hg4 & Hlo4).
    apply wp_bind. apply wp_rdf. exists o4. split; [exact Hg4|].
    rewrite (R_index _ _ (fi_R _ _ H3) _ _ Hg4).
    apply wp_bind. apply wp_scopeEnter.
    destruct (scope_push_step s g s3 g2 p H3 Hlive2 Hext2 A3) as (H5 & E5 & P5).
    set (s5 := with_scopeStack s3 (p :: p_scopeStack s3)) in *.
    apply wp_bind, wp_get. rewrite (fi_skip _ _ H5). cbn [negb].
    destruct A3 as (B1 & B2 & B3 & B4 & B5 & B6).
    assert (Eop4 : o_opcode o4 = aml_pOpIntScopeBlock).
    { unfold s3, s2 in Hg4. pcbn_in Hg4. rewrite get_tset, N.eqb_refl in Hg4. assert (Hg3' : tget t2 p = Some o3) by exact Hg3.
      rewrite Hg3' in Hg4. cbn [option_map] in Hg4. inversion Hg4; subst o4. cbn. assert (o3 = po) by congruence. subst. exact Hpop. }
    apply wp_ret. exists g2. split; [exact H5|]. split; [exact E5|].
    split; [clear - P5; lia|]. split; [discriminate|]. split; [intros _; exact P5|].
    split; [cbn [fresh_root]; auto|]. split; [reflexivity|]. split; [intros E; exfalso; rewrite Etl in E; discriminate|].
    split; [eapply Fw_tree_eq; [exact F3|reflexivity]|].
    split.
    { intros y Hy. unfold s5 in Hy. cbn [p_scopeStack with_scopeStack] in Hy. destruct Hy as [<-|Hy].
      - right. exists o4. split; [exact Hg4|exact Eop4].
      - left. rewrite <- B5. exact Hy. }
    split; [reflexivity|].
    split.
    { intros obj Ea _. inversion Ea; subst obj. exists o4. split; [exact Hg4|].
      split; [intros E; exfalso; rewrite Etl in E; discriminate|]. split; [intros E; exfalso; rewrite Etl in E; discriminate|intros _; split; [exact Hkids2|exact Eop4]]. }
    split; [intros E; exfalso; rewrite Etl in E; discriminate|]. split; [intros _ _; discriminate|].
    split; [intros [E|E]; exfalso; rewrite Etl in E; discriminate|]. split; [intros E; exfalso; rewrite Etl in E; discriminate|].
    split; [intros E; exfalso; rewrite Etl in E; discriminate|intros [E|E]; exfalso; rewrite Etl in E; discriminate]. }
  (* a target *)
  apply wp_run2. eapply wp_weaken; [apply (IHt s g H Hroom)|auto|].
  intros [a res] s' (g' & F1 & F2 & F3 & F4 & F5 & F6 & F7 & F8 & F9) Erun. exists g'. split; auto. split; auto.
  split; [exact F3|]. split; [exact F4|]. split; [intros Hr; contradiction|]. split; [exact F5|].
  split; [kill_ty|]. split; [kill_ty|].
  split; [eapply Fw_weaken; [| |exact F7]; [intros i _ []|intros y _ []]|].
  split; [exact F8|]. split; [exact F9|].
  split.
  { intros obj Ea _. subst a. destruct F5 as (_ & Hlo & _). destruct (FI_live_get _ _ _ F1 Hlo) as (oo & Hoo & _).
    exists oo. split; [exact Hoo|]. split; [kill_ty|]. split; [kill_ty|intros E; rewrite E in Etl; discriminate]. }
  split; [intros E; rewrite E in Epl; discriminate|]. split; [intros E; rewrite E in Etl; discriminate|].
  split; [kill_ty|]. split; [intros E; rewrite E in Epl; discriminate|]. split; [intros E; rewrite E in Efl; discriminate|kill_ty].
Qed.

Lemma akind_pframe ty s g (t2 : T) g2 a : akind ty s g a -> pframe (p_tree s) t2 -> kids g2 a = kids g a -> akind ty (with_tree s t2) g2 a.
Proof.
  intros (o & Ho & A & B & C) Hpf Ek. destruct (proj2 Hpf _ _ Ho) as (o2 & Ho2 & (E1 & E2 & _ & _ & _ & _ & _ & E8)).
  exists o2. split; [exact Ho2|]. unfold rowis in *. rewrite E1, E2, E8, Ek. auto.
Qed.

Lemma shape_nil af i c s g : argCount af <= i -> shape af i c s g g.
Proof. intros H. exists []. rewrite app_nil_r, (otys_done _ _ H). split; [reflexivity|split; constructor]. Qed.

Lemma tstep_args fuel : T_arg fuel -> T_args fuel -> T_args (S fuel).
Proof.
  intros IHarg IHargs ii op fl af curObj argIndex s g H Hl Hroom Hrow Hi9 Hfl HLI Hsh. unfold spec. cbn [parseArgs].
  pose proof (argCount_le8 af) as Hcnt.
  assert (Hdone : argCount af <= argIndex ->
    exists g', FI s g' /\ Ext s g s g' /\ Phi s <= Phi s + 2 /\ (ROk = ROk -> Phi s <= Phi s) /\ (ROk = RShort -> Phi s <= Phi s + 1) /\
      Fw (eq curObj) (XO g curObj) s g s g' /\ SSBx s s /\ p_handle s = p_handle s /\
      (okr ROk -> simple_from af argIndex -> hasFlag fl aml_pOpFlagDeferParsing = false -> shape af argIndex curObj s g g')).
  { intros Hc. exists g. split; auto. split; [apply Ext_refl|]. split; [lia|]. split; [intros; lia|]. split; [intros; lia|].
    split; [apply Fw_refl|]. split; [apply SSBx_same; reflexivity|]. split; [reflexivity|]. intros _ _ _. apply shape_nil. exact Hc. }
  destruct (N.eqb_spec (argCount af) 0) as [Ez|Ez].
  { apply wp_ret. apply Hdone. lia. }
  destruct (argCount af <=? argIndex) eqn:Ele.
  { apply wp_ret. apply Hdone. apply N.leb_le. exact Ele. }
  clear Hdone. apply N.leb_gt in Ele. assert (Hi8 : argIndex < 8) by lia.
  set (argTy := argType af argIndex) in *.
  assert (Hnbl : argTy <> aml_pArgTypeByteList).
  { intros E. destruct (Hsh argIndex (N.le_refl _) Hi8 E) as (j' & Hj1 & Hj2 & _). lia. }
  apply wp_bind. eapply wp_weaken; [apply (IHarg op fl af curObj argTy s g H Hl Hroom Hnbl)|auto|].
  { intros E. split; [apply Hfl; exists argIndex; split; auto|apply HLI; auto]. }
  intros [a res] s1 (g1 & H1 & E1 & P1 & P2 & P3 & Hfr & Hta & Hbd & Ffw & Hss & Hh & Hak & Hpn & Htl & Hnb & Hpd & Hflr & Hnsr).
  pose proof (R_gwf _ _ (fi_R _ _ H)) as Hwf.
  pose proof (ex_g _ _ _ _ E1) as G1.
  assert (Ffw1 : Fw (eq curObj) (XO g curObj) s g s1 g1).
  { eapply Fw_weaken; [| |exact Ffw]; [auto|intros y _ (_ & F); exact F]. }
  assert (Hk1x : argTy <> aml_pArgTypeFieldList -> forall y, glive g y -> kids g1 y = kids g y).
  { intros Hne y Hy. destruct (fw_kids _ _ _ _ _ _ Ffw y Hy (fun F => F)) as (_ & Hex). apply Hex. intros (F & _). contradiction. }
  (* the state after the optional append *)
  set (alist := match a with Some x => [x] | None => [] end).
  assert (Happ : forall (Q : unit -> pstate -> Prop),
    (forall s2 g2, FI s2 g2 -> Ext s g s2 g2 -> Phi s2 = Phi s1 -> rem s2 = rem s1 ->
       (argTy = aml_pArgTypeByteData -> LastNum s2 curObj) ->
       Fw (eq curObj) (XO g curObj) s g s2 g2 -> SSBx s s2 -> p_handle s2 = p_handle s ->
       kids g2 curObj = kids g1 curObj ++ alist -> (forall q, q <> curObj -> kids g2 q = kids g1 q) ->
       (forall obj, a = Some obj -> okr res -> akind argTy s2 g2 obj /\ glive g2 obj /\ ~ glive g obj) ->
       (forall x, glive g1 x -> glive g2 x) -> Q tt s2) ->
    wp True (match a with Some a0 => appendM (Some curObj) a0 | None => ret tt end) s1 Q).
  { intros Q K. unfold alist. destruct a as [obj|].
    - destruct Hfr as (Hfresh & Hlive & Hroot).
      eapply (append_step _ curObj obj s1 g1 g); [exact H1|exact Hwf|exact G1|exact Hl|exact Hfresh|exact Hlive|exact Hroot|].
      intros t2 H2 G2 Hpf Hk Hk'.
      assert (Hoc : obj <> curObj) by (intros ->; contradiction).
      apply K with (g2 := astep g1 (OpAppend curObj obj)); auto.
      + destruct E1 as [_ L O (e & St) Pk Pd]. constructor; auto. exists e. exact St.
      + unfold Phi, lp, rem. pcbn. destruct Hpf as (L & _). rewrite L. reflexivity.
      + intros Ebd. destruct (Hbd Ebd) as (obj' & po & v & Ea & Hpo & Hv). inversion Ea; subst obj'.
        assert (Hl2 : glive (astep g1 (OpAppend curObj obj)) curObj) by (apply glive_set_kids; apply (ge_live _ _ G1); exact Hl).
        destruct (FI_live_get _ _ _ H2 Hl2) as (co2 & Hco2 & Hlco2).
        destruct (R_kids _ _ (fi_R _ _ H2) _ _ Hco2 Hlco2) as (_ & Hlast & _).
        rewrite Hk, last_last in Hlast.
        destruct (pframe_get _ _ _ _ Hpf Hpo) as (po' & Hpo' & Eop & _ & Eval).
        assert (Hlo2 : glive (astep g1 (OpAppend curObj obj)) obj) by (apply glive_set_kids; exact Hlive).
        destruct (FI_live_get _ _ _ H2 Hlo2) as (po2 & Hpo2 & Hlpo2).
        pcbn_in Hpo2. assert (po2 = po') by congruence. subst po2.
        exists co2, po', v. split; [exact Hco2|]. rewrite Hlast. split; [exact Hpo'|]. split; [exact Hlpo2|]. congruence.
      + apply (Fw_append _ _ s g s1 g1 t2 _ curObj obj Ffw1 Hpf Hk Hk'). intros _. left. reflexivity.
      + intros y Hy. destruct (Hss y Hy) as [A|A]; [left; exact A|right; apply is_sb_pframe; auto].
      + intros obj' Ea Hr. inversion Ea; subst obj'. split; [|split; [apply glive_set_kids; exact Hlive|exact Hfresh]].
        apply (akind_pframe argTy s1 g1 t2 _ obj (Hak obj eq_refl Hr) Hpf). apply Hk'. exact Hoc.
      + intros x Hx. apply glive_set_kids. exact Hx.
    - apply wp_ret. apply K with (g2 := g1); auto.
      + intros Ebd. destruct (Hbd Ebd) as (obj' & _ & _ & Ea & _). discriminate.
      + rewrite app_nil_r. reflexivity.
      + intros obj Ea. discriminate. }
  apply wp_bind. apply Happ. intros s2 g2 H2 E2 EPhi Erem HLN Ffw2 Hss2 Hh2 Hkc2 Hko2 Hak2 Hlv2.
  assert (Hkc1 : argTy <> aml_pArgTypeFieldList -> kids g1 curObj = kids g curObj) by (intros Hne; apply (Hk1x Hne); exact Hl).
  destruct (pres_eqb res ROk) eqn:Eres.
  - assert (res = ROk) by (destruct res; try discriminate; reflexivity). subst res. destruct (P2 eq_refl) as (P2a & P2b).
    assert (Hnfl : argTy <> aml_pArgTypeFieldList) by (intros E; apply (Hflr E); reflexivity).
    assert (Ew : w8 (argIndex + 1) = argIndex + 1) by (unfold w8, two8; apply N.mod_small; lia). rewrite Ew.
    pose proof (ex_g _ _ _ _ E2) as G2.
    assert (Hl2 : glive g2 curObj) by (apply (ge_live _ _ G2); exact Hl).
    eapply wp_weaken; [apply (IHargs ii op fl af curObj (argIndex + 1) s2 g2 H2 Hl2)|auto|].
    + unfold room in *. lia.
    + exact Hrow.
    + lia.
    + intros Hf. destruct (Hfl Hf) as (par & l1 & Hpar). exists par, l1.
      assert (Hpc : par <> curObj).
      { intros ->. eapply (R_child_neq_parent _ _ (fi_R _ _ H)); [rewrite Hpar; apply in_or_app; right; left; reflexivity|reflexivity]. }
      assert (Hlpar : glive g par) by (apply (Hwf par curObj); rewrite Hpar; apply in_or_app; right; left; reflexivity).
      rewrite (Hko2 par Hpc), (Hk1x Hnfl par Hlpar). exact Hpar.
    + intros Hi9' Hfl1. apply HLN.
      destruct (fieldlist_after_bytedata _ _ _ _ _ Hrow Hi9' Hfl1) as (_ & Hb). replace (argIndex + 1 - 1) with argIndex in Hb by lia. exact Hb.
    + intros j Hj1 Hj8 Hbl. destruct (Hsh j) as (j' & Hj'1 & Hj'2 & Hty); [lia|exact Hj8|exact Hbl|].
      exists j'. split; [|split; auto]. destruct (N.eq_dec j' argIndex) as [->|Hne]; [|lia].
      exfalso. fold argTy in Hty. assert (Hs : res_short argTy) by (destruct Hty; [left|right; left]; assumption).
      specialize (Hta Hs). discriminate.
    + intros res s' (g' & F1 & F2 & F3 & F4 & F5 & F6 & F7 & F8 & F9). exists g'. split; auto.
      split; [eapply Ext_trans; eauto|]. split; [lia|]. split; [intros Hr; specialize (F4 Hr); lia|].
      split; [intros Hr; specialize (F5 Hr); lia|].
      split.
      { eapply Fw_trans; [exact Ffw2|exact F6|apply (ge_live _ _ G2)|auto|].
        intros y Hy [->|Hin]; [left; reflexivity|].
        destruct (N.eq_dec y curObj) as [->|Hyc]; [left; reflexivity|right].
        rewrite (Hko2 y Hyc), (Hk1x Hnfl y Hy) in Hin. exact Hin. }
      split.
      { intros y Hy. destruct (F7 y Hy) as [A|A]; [|right; exact A]. destruct (Hss2 y A) as [B|B]; [left; exact B|right].
        destruct B as (o & Ho & Eo). pose proof (ex_g _ _ _ _ F2) as G3.
        assert (Hly : glive g2 y) by (pose proof (fi_scopes _ _ H2) as Fs; rewrite Forall_forall in Fs; apply Fs; exact A).
        destruct (fw_keep _ _ _ _ _ _ F6 y o Hly Ho) as (o' & Ho' & (E1' & _) & _). exists o'. split; [exact Ho'|congruence]. }
      split; [congruence|].
      intros Hr Hsim Hdf. destruct (F9 Hr) as (objs' & Hk' & Hf2 & Hn2).
      { intros k Hk1 Hk2. apply Hsim; lia. }
      { exact Hdf. }
      assert (Hsty : simple_ty argTy) by (apply Hsim; lia).
      unfold shape. rewrite (otys_step af argIndex Ele). fold argTy.
      exists (alist ++ objs'). split; [rewrite Hk', Hkc2, (Hkc1 Hnfl), app_assoc; reflexivity|].
      split.
      2:{ apply Forall_app. split.
          - unfold alist. destruct a as [obj|]; [|constructor]. constructor; [|constructor].
            destruct (Hak2 obj eq_refl (or_introl eq_refl)) as (_ & _ & K3). exact K3.
          - eapply Forall_impl; [|exact Hn2]. intros a0 Hn0 Hl0. apply Hn0. apply (ge_live _ _ G2). exact Hl0. }
      apply Forall2_app; [|exact Hf2].
      destruct (N.eqb_spec argTy aml_pArgTypePkgLen) as [Epl|Epl].
      * unfold alist. rewrite (Hpn Epl). constructor.
      * destruct Hsty as [E|[E|[E|E]]]; [contradiction| | |exfalso; assert (Hs : res_short argTy) by (right; right; exact E); specialize (Hta Hs); discriminate].
        -- destruct a as [obj|]; [|exfalso; apply (Hnb (or_introl E) eq_refl); reflexivity].
           unfold alist. constructor; [|constructor]. destruct (Hak2 obj eq_refl (or_introl eq_refl)) as (K1 & K2 & K3).
           apply (akind_keep argTy (eq curObj) (XO g2 curObj) s2 g2 s' g' obj F6 K2); [intros E0; apply K3; rewrite <- E0; exact Hl| |exact K1].
           intros [E0|Hin]; [apply K3; rewrite E0; exact Hl|]. destruct K1 as (o & _ & A & _). destruct (A E) as (Kn & _). rewrite Kn in Hin. exact Hin.
        -- destruct a as [obj|]; [|exfalso; apply (Hnb (or_intror E) eq_refl); reflexivity].
           unfold alist. constructor; [|constructor]. destruct (Hak2 obj eq_refl (or_introl eq_refl)) as (K1 & K2 & K3).
           apply (akind_keep argTy (eq curObj) (XO g2 curObj) s2 g2 s' g' obj F6 K2); [intros E0; apply K3; rewrite <- E0; exact Hl| |exact K1].
           intros [E0|Hin]; [apply K3; rewrite E0; exact Hl|]. destruct K1 as (o & _ & _ & B & _). destruct (B E) as (Kn & _). rewrite Kn in Hin. exact Hin.
  - apply wp_ret. exists g2. split; auto. split; auto. split; [lia|].
    split; [intros Hr; subst res; discriminate|]. split; [intros Hr; specialize (P3 Hr); lia|].
    split; [exact Ffw2|]. split; [exact Hss2|]. split; [exact Hh2|].
    intros [Hr|Hr] Hsim Hdf; [subst res; discriminate|]. subst res.
    assert (Hsty : simple_ty argTy) by (apply Hsim; lia).
    assert (Hnfl : argTy <> aml_pArgTypeFieldList) by (destruct Hsty as [E|[E|[E|E]]]; rewrite E; discriminate).
    unfold shape. rewrite (otys_step af argIndex Ele). fold argTy.
    destruct Hsty as [E|[E|[E|E]]].
    + exfalso. rewrite (Hpd E eq_refl) in Hdf. discriminate.
    + exfalso. apply (Hnsr (or_introl E)). reflexivity.
    + exfalso. apply (Hnsr (or_intror E)). reflexivity.
    + assert (Hlast : argCount af <= argIndex + 1).
      { apply (unpaid_last ii op fl af argIndex Hrow Hi8). fold argTy. rewrite E. reflexivity. }
      rewrite (otys_done af (argIndex + 1) Hlast), app_nil_r.
      destruct a as [obj|]; [|exfalso; apply (Htl E (or_intror eq_refl)); reflexivity].
      exists [obj]. split; [rewrite Hkc2, (Hkc1 Hnfl); reflexivity|].
      destruct (Hak2 obj eq_refl (or_intror eq_refl)) as (K1 & _ & K3).
      split; [|constructor; [exact K3|constructor]].
      rewrite E. change (aml_pArgTypeTermList =? aml_pArgTypePkgLen) with false. cbv iota.
      constructor; [|constructor]. rewrite <- E. exact K1.
Qed.

Lemma objargs_num2 (P : Prop) curObj k s g :
  FI s g -> glive g curObj ->
  wp P (mlet '(v, ok) <~ lex (parseNumConstant k) ;; wrf curObj (set_value (Some (VNum v))) ;;; ret (pres_of_bool ok)) s
     (fun _ s' => FI s' g /\ at_ s s' 0 0 /\ Fw (eq curObj) (XO g curObj) s g s' g /\ p_scopeStack s' = p_scopeStack s /\ p_handle s' = p_handle s).
Proof.
  intros H Hl. apply wp_bind. apply wp_num; [apply (fi_rok _ _ H)|]. intros v ok r1 Hadv _.
  assert (H1 : FI (with_r s r1) g) by (apply FI_adv; auto).
  assert (F1 : Fw (eq curObj) (XO g curObj) s g (with_r s r1) g) by (eapply Fw_tree_eq; [apply Fw_refl|reflexivity]).
  wwrf H1 Hl. intros o2 Hg2 Hlo2 H2. apply wp_ret. split; [exact H2|].
  split; [apply at_tset; apply at_adv0; [apply at_refl, (fi_rok _ _ H)|exact Hadv]|].
  split; [apply Fw_tset; [exact F1|pnw_tac|intros _; left; reflexivity]|]. split; reflexivity.
Qed.

Lemma tstep_objargs fuel : T_args fuel -> T_objargs (S fuel).
Proof.
  intros IHa curObj s g H Hl Hroom Hfl Hex. unfold spec. cbn [parseObjectArgs].
  destruct (FI_live_get _ _ _ H Hl) as (co & Hco & Hlco).
  apply wp_bind. apply wp_rdf. exists co. split; [exact Hco|].
  apply wp_bind, wp_get.
  assert (Fin : forall (res : pres) s', FI s' g /\ at_ s s' 0 0 /\ Fw (eq curObj) (XO g curObj) s g s' g /\ p_scopeStack s' = p_scopeStack s /\ p_handle s' = p_handle s ->
     (o_opcode co <> aml_pOpMethod /\ o_opcode co <> aml_pOpScope) ->
     wp True (ret match res with RShort => ROk | r => r end) s'
       (fun res s'0 => exists g', FI s'0 g' /\ Ext s g s'0 g' /\ Phi s'0 <= Phi s + 2 /\ (res = ROk -> Phi s'0 <= Phi s + 1) /\ res <> RShort /\
          Fw (eq curObj) (XO g curObj) s g s'0 g' /\ SSBx s s'0 /\ p_handle s'0 = p_handle s /\
          (res = ROk -> forall co op fl af, tget (p_tree s) curObj = Some co -> opInfo (o_infoIndex co) = Some (op, fl, af) ->
             (o_opcode co = aml_pOpMethod \/ o_opcode co = aml_pOpScope) ->
             simple_from af 0 -> hasFlag fl aml_pOpFlagDeferParsing = false -> shape af 0 curObj s'0 g g'))).
  { intros res s' (F1 & F2 & F3 & F4 & F5) (N1 & N2). apply wp_ret. exists g. destruct (fin_at s g _ g 0 0 F1 F2 (gext_refl g)) as (G1 & G2 & G3).
    split; auto. split; auto. split; [lia|]. split; [intros _; lia|]. split; [destruct res; discriminate|]. split; [exact F3|].
    split; [apply SSBx_same; exact F4|]. split; [exact F5|].
    intros _ co' op fl af Hco' _ [E|E]; exfalso; assert (co' = co) by congruence; subst; contradiction. }
  apply wp_bind.
  destruct (N.eqb_spec (o_opcode co) aml_pOpBytePrefix) as [E1|E1].
  { eapply wp_weaken; [apply (objargs_num2 False curObj 1 s g H Hl)|intros []|]. intros res s' HQ. apply Fin; [exact HQ|rewrite E1; split; discriminate]. }
  destruct (N.eqb_spec (o_opcode co) aml_pOpWordPrefix) as [E2|E2].
  { eapply wp_weaken; [apply (objargs_num2 False curObj 2 s g H Hl)|intros []|]. intros res s' HQ. apply Fin; [exact HQ|rewrite E2; split; discriminate]. }
  destruct (N.eqb_spec (o_opcode co) aml_pOpDwordPrefix) as [E3|E3].
  { eapply wp_weaken; [apply (objargs_num2 False curObj 4 s g H Hl)|intros []|]. intros res s' HQ. apply Fin; [exact HQ|rewrite E3; split; discriminate]. }
  destruct (N.eqb_spec (o_opcode co) aml_pOpQwordPrefix) as [E4|E4].
  { eapply wp_weaken; [apply (objargs_num2 False curObj 8 s g H Hl)|intros []|]. intros res s' HQ. apply Fin; [exact HQ|rewrite E4; split; discriminate]. }
  destruct (N.eqb_spec (o_opcode co) aml_pOpStringPrefix) as [E5|E5].
  { apply wp_bind. apply wp_string; [apply (fi_rok _ _ H)|]. intros v ok r1 Hadv _.
    assert (H1 : FI (with_r s r1) g) by (apply FI_adv; auto).
    assert (F1 : Fw (eq curObj) (XO g curObj) s g (with_r s r1) g) by (eapply Fw_tree_eq; [apply Fw_refl|reflexivity]).
    wwrf H1 Hl. intros o2 Hg2 Hlo2 H2. apply wp_ret. apply Fin; [|rewrite E5; split; discriminate]. split; [exact H2|].
    split; [apply at_tset; apply at_adv0; [apply at_refl, (fi_rok _ _ H)|exact Hadv]|].
    split; [apply Fw_tset; [exact F1|pnw_tac|intros _; left; reflexivity]|]. split; reflexivity. }
  apply wp_bind. apply wp_rdf. exists co. split; [exact Hco|].
  pose proof (fi_info _ _ H _ _ Hco Hlco) as Hinfo.
  destruct (opInfo (o_infoIndex co)) as [[[op fl] af]|] eqn:Erow; [|contradiction].
  apply wp_bind. eapply wp_info; [exact Erow|].
  eapply wp_weaken; [apply (IHa (o_infoIndex co) op fl af curObj 0 s g H Hl Hroom Erow)|auto|].
  - lia.
  - intros Hf. eapply Hfl; eauto.
  - intros _ Hfl0. exfalso. destruct (fieldlist_after_bytedata _ _ _ _ 0 Erow) as (Hc & _); [lia|exact Hfl0|lia].
  - intros j _ Hj Hbl. destruct (bytelist_shielded _ _ _ _ j Erow Hj Hbl) as (j' & Hj' & Hty). exists j'. split; [lia|]. split; auto.
  - intros res s' (g' & F1 & F2 & F3 & F4 & F5 & F6 & F7 & F8 & F9). apply wp_ret. exists g'. split; auto. split; auto. split; [exact F3|].
    split; [|split; [destruct res; discriminate|]].
    + destruct res; try discriminate.
      * intros _. specialize (F4 eq_refl). lia.
      * intros _. apply F5. reflexivity.
    + split; [exact F6|]. split; [exact F7|]. split; [exact F8|].
      intros Hr co' op' fl' af' Hco' Hrow' _ Hsim Hdf. assert (co' = co) by congruence. subst co'. rewrite Erow in Hrow'. inversion Hrow'; subst op' fl' af'.
      apply F9; auto. destruct res; try discriminate; [left|right]; reflexivity.
Qed.

Lemma tstep_target fuel : T_objargs fuel -> T_target (S fuel).
Proof.
  intros IHo s g H Hroom. unfold spec. cbn [parseTarget].
  pose proof (fi_rok _ _ H) as Hrok. pose proof (room_lp _ Hroom) as Hlp.
  assert (F0 : Fw NoP NoP s g s g) by apply Fw_refl.
  apply wp_bind, wp_get.
  apply wp_bind. apply wp_nextop; auto. intros nextOp ok r1 Hadv Hok Hnok.
  assert (H1 : FI (with_r s r1) g) by (apply FI_adv; auto).
  assert (F1 : Fw NoP NoP s g (with_r s r1) g) by (eapply Fw_tree_eq; [exact F0|reflexivity]).
  destruct ok.
  - destruct (Hok eq_refl) as (Hlt & Hop & idx & Hidx & Hbad). clear Hok Hnok.
    assert (A1 : at_ s (with_r s r1) 1 0).
    { eapply at_r; [apply at_refl; auto|destruct Hadv as ((_ & E & _) & _); exact E|lia|destruct Hadv as (_ & _ & L); exact L]. }
    destruct (nextOp =? aml_pOpZero).
    { apply wp_ret. exists g. destruct (fin_at s g _ g 1 0 H1 A1 (gext_refl g)) as (G1 & G2 & G3).
      split; auto. split; auto. split; [lia|]. split; [intros _; split; [lia|exact Hlt]|]. split; [exact I|].
      split; [discriminate|]. split; [exact F1|]. split; [apply SSBx_same; reflexivity|reflexivity]. }
    change (isArg nextOp || (nextOp =? aml_pOpRefOf) || (nextOp =? aml_pOpDerefOf) || (nextOp =? aml_pOpIndex) || (nextOp =? aml_pOpDebug))
      with (target_cond nextOp).
    destruct (target_cond nextOp) eqn:Etc.
    2:{ apply wp_ret. exists g. destruct (fin_at s g _ g 1 0 H1 A1 (gext_refl g)) as (G1 & G2 & G3).
        split; auto. split; auto. split; [lia|]. split; [discriminate|]. split; [exact I|].
        split; [discriminate|]. split; [exact F1|]. split; [apply SSBx_same; reflexivity|reflexivity]. }
    destruct (valid_op _ _ Hop Hidx Hbad) as (Hnk & Hidx').
    apply wp_bind. eapply new_step2; [exact H1|exact Hnk| |].
    { unfold lp in *. pcbn. lia. }
    intros p t2 g2 po H2 Hext2 Hfresh2 Hlive2 Hroot2 Hkids2 Hpo Hpop Hpval Hpidx Hl2 Hfw2 Hks2 _.
    set (s2 := with_tree (with_r s r1) t2) in *.
    assert (A2 : at_ s s2 1 1) by (eapply at_new'; [exact A1|exact Hl2|reflexivity]).
    assert (F2 : Fw NoP NoP s g s2 g2) by (apply (Fw_new NoP NoP s g (with_r s r1) g t2 g2 p F1 (fun x Hx => Hx) Hfresh2 Hfw2 Hks2)).
    wwrf H2 Hlive2. intros o3 Hg3 Hlo3 H3.
    match type of H3 with FI ?st _ => set (s3 := st) in * end.
    assert (F3 : Fw NoP NoP s g s3 g2) by (apply Fw_tset; [exact F2|pnw_tac|intros h; contradiction]).
    assert (A3 : at_ s s3 1 1) by (apply at_tset; exact A2).
    destruct (at_Phi _ _ _ _ A3) as (P3 & R3).
    assert (Hco3 : forall co, tget (p_tree s3) p = Some co -> o_infoIndex co = idx).
    { intros co Hco. unfold s3, s2 in Hco. pcbn_in Hco. rewrite get_tset, N.eqb_refl in Hco.
      assert (Hg3' : tget t2 p = Some o3) by exact Hg3. rewrite Hg3' in Hco. cbn [option_map] in Hco.
      inversion Hco; subst co. cbn [o_infoIndex set_amlOffset]. assert (o3 = po) by congruence. subst o3.
      rewrite Hidx' in Hpidx. inversion Hpidx. reflexivity. }
    apply wp_bind. eapply wp_weaken; [apply (IHo p s3 g2 H3 Hlive2)|auto|].
    + unfold room in *. lia.
    + intros co op' fl af Hco Hinfo (k & Hk & Hfl). exfalso.
      rewrite (Hco3 co Hco) in Hinfo. eapply (target_no_fieldlist nextOp idx op' fl af k); eauto.
    + intros co Hco. rewrite (Hco3 co Hco). exists nextOp. auto.
    + intros res s' (g' & G1 & G2 & G3 & G4 & G5 & G6 & G7 & G8 & _).
      apply wp_ret. exists g'. split; auto. split; [eapply Ext_trans; [eapply at_Ext; [exact A3|exact Hext2]|exact G2]|].
      split; [lia|]. split.
      { intros Hr; specialize (G4 Hr). split; [lia|]. pose proof (ex_off _ _ _ _ G2) as Ho. destruct A3 as (_ & Ao & _). lia. }
      split.
      { cbn [fresh_root]. split; [exact Hfresh2|]. split; [apply (ge_live _ _ (ex_g _ _ _ _ G2)); exact Hlive2|].
        eapply groot_ext; [apply (ex_g _ _ _ _ G2)|exact Hlive2|exact Hroot2]. }
      split; [exact G5|].
      split.
      { eapply Fw_trans; [exact F3|exact G6|apply (ge_live _ _ Hext2)| |].
        - intros i Hi E. subst i. contradiction.
        - intros y Hy [E|Hin]; [subst y; contradiction|exfalso; apply (Hroot2 y Hin)]. }
      split; [|exact G8].
      intros y Hy. destruct (G7 y Hy) as [A|A]; [left; exact A|right; exact A].
  - destruct (Hnok eq_refl) as (Ho1 & _). clear Hok Hnok.
    apply wp_bind. apply wp_ru.
    destruct (rok_setOffset r1 (r_offset (p_r s)) (fi_rok _ _ H1)) as (Hrok2 & Hlen2).
    set (r2 := setOffset (p_r (with_r s r1)) (r_offset (p_r s))) in *.
    assert (Eo2 : r_offset r2 = r_offset (p_r s)).
    { unfold r2. apply setOffset_noclamp. pcbn. destruct Hadv as ((_ & E & _) & _). rewrite E. destruct Hrok as (_ & _ & O). exact O. }
    assert (H2 : FI (with_r (with_r s r1) r2) g) by (apply FI_with_r; auto).
    assert (A2 : at_ s (with_r (with_r s r1) r2) 0 0).
    { eapply at_r; [apply at_adv0; [apply at_refl; auto|exact Hadv]|exact Hlen2|lia|destruct Hrok2 as (_ & _ & O); exact O]. }
    assert (F2 : Fw NoP NoP s g (with_r (with_r s r1) r2) g) by (eapply Fw_tree_eq; [exact F0|reflexivity]).
    apply wp_bind. eapply new_step2; [exact H2|apply (newokb_sound aml_pOpIntNamePath eq_refl)| |].
    { unfold lp in *. pcbn. lia. }
    intros p t3 g3 po H3 Hext3 Hfresh3 Hlive3 Hroot3 Hkids3 Hpo _ _ _ Hl3 Hfw3 Hks3 _.
    set (s3 := with_tree (with_r (with_r s r1) r2) t3) in *.
    assert (A3 : at_ s s3 0 1) by (eapply at_new'; [exact A2|exact Hl3|reflexivity]).
    assert (F3 : Fw NoP NoP s g s3 g3) by (apply (Fw_new NoP NoP s g _ g t3 g3 p F2 (fun x Hx => Hx) Hfresh3 Hfw3 Hks3)).
    wwrf H3 Hlive3. intros o4 Hg4 Hlo4 H4.
    match type of H4 with FI ?st _ => set (s4 := st) in * end.
    assert (F4 : Fw NoP NoP s g s4 g3) by (apply Fw_tset; [exact F3|pnw_tac|intros h; contradiction]).
    assert (A4 : at_ s s4 0 1) by (apply at_tset; exact A3).
    apply wp_bind, wp_get.
    apply wp_bind. apply wp_namestring; [apply (fi_rok _ _ H4)|]. intros v ok2 r5 Hadv5 Hok5.
    assert (H5 : FI (with_r s4 r5) g3) by (apply FI_adv; auto).
    assert (F5 : Fw NoP NoP s g (with_r s4 r5) g3) by (eapply Fw_tree_eq; [exact F4|reflexivity]).
    wwrf H5 Hlive3. intros o6 Hg6 Hlo6 H6.
    match type of H6 with FI ?st _ => set (s6 := st) in * end.
    assert (F6 : Fw NoP NoP s g s6 g3) by (apply Fw_tset; [exact F5|pnw_tac|intros h; contradiction]).
    apply wp_ret. exists g3.
    destruct ok2.
    + specialize (Hok5 eq_refl).
      assert (A6 : at_ s s6 1 1).
      { apply at_tset. replace 1 with (0 + 1) at 1 by reflexivity. apply at_adv; [exact A4|exact Hadv5|lia]. }
      destruct (fin_at s g _ g3 1 1 H6 A6 Hext3) as (G1 & G2 & G3).
      split; auto. split; auto. split; [lia|]. split; [intros _; split; [lia|]|].
      { destruct A6 as (_ & Ao & _). lia. }
      cbn [fresh_root]. split; [auto|]. split; [discriminate|]. split; [exact F6|]. split; [apply SSBx_same; reflexivity|reflexivity].
    + assert (A6 : at_ s s6 0 1) by (apply at_tset; apply at_adv0; [exact A4|exact Hadv5]).
      destruct (fin_at s g _ g3 0 1 H6 A6 Hext3) as (G1 & G2 & G3).
      split; auto. split; auto. split; [lia|]. split; [discriminate|]. cbn [fresh_root]. split; [auto|].
      split; [discriminate|]. split; [exact F6|]. split; [apply SSBx_same; reflexivity|reflexivity].
Qed.

Definition tblock2 (fuel : nat) : Prop := T_target fuel /\ T_arg fuel /\ T_args fuel /\ T_objargs fuel.

Lemma tblock2_all : forall fuel, tblock2 fuel.
Proof.
  induction fuel as [|fuel (Ht & Ha & Hs & Ho)].
  - unfold tblock2. repeat split; intro; intros; unfold spec; cbn; apply wp_outOfFuel; exact I.
  - assert (Ha' : T_arg (S fuel)) by (apply tstep_arg; exact Ht).
    assert (Hs' : T_args (S fuel)) by (apply tstep_args; assumption).
    assert (Ho' : T_objargs (S fuel)) by (apply tstep_objargs; exact Hs).
    assert (Ht' : T_target (S fuel)) by (apply tstep_target; exact Ho).
    unfold tblock2. auto.
Qed.

Lemma newObject_name (t t' : T) opc th p : newObject t opc th = Ok (t', p) -> tget t p = None ->
  exists po, tget t' p = Some po /\ o_name po = name_zero.
Proof.
  unfold newObject. intros H Hn. destruct (t_free t =? InvalidIndex) eqn:Ef; cbn [bind] in H.
  - apply bind_ok in H. destruct H as (info & _ & H). apply bind_ok in H. destruct H as (t2 & Hw & H). inversion H; subst t2 p. clear H.
    destruct (wr_inv _ _ _ _ Hw) as (-> & o & Ho). rewrite get_tset, N.eqb_refl, Ho. cbn [option_map]. eexists. split; [reflexivity|].
    unfold TreeSpec.get in Ho. cbn [t_pool] in Ho. rewrite Nnat.Nat2N.id, nth_error_app2 in Ho by lia. rewrite Nat.sub_diag in Ho. cbn in Ho.
    inversion Ho; subst o. reflexivity.
  - apply bind_ok in H. destruct H as ([t1 p1] & Htp & H). apply bind_ok in Htp. destruct Htp as (o & Ho & Htp). inversion Htp; subst t1 p1. clear Htp.
    apply bind_ok in H. destruct H as (info & _ & H). apply bind_ok in H. destruct H as (t2 & Hw & H). inversion H; subst t2 p. clear H.
    rewrite deref_get in Ho. rewrite Hn in Ho. discriminate.
Qed.

Lemma newObject_name_old (t t' : T) opc th p o0 : newObject t opc th = Ok (t', p) -> tget t p = Some o0 ->
  exists po, tget t' p = Some po /\ o_name po = name_zero.
Proof.
  unfold newObject. intros H Hn. destruct (t_free t =? InvalidIndex) eqn:Ef; cbn [bind] in H.
  - apply bind_ok in H. destruct H as (info & _ & H). apply bind_ok in H. destruct H as (t2 & Hw & H). inversion H; subst t2 p. clear H.
    exfalso. pose proof (get_lt _ _ _ Hn) as Hlt. lia.
  - apply bind_ok in H. destruct H as ([t1 p1] & Htp & H). apply bind_ok in Htp. destruct Htp as (o & Ho & Htp). inversion Htp; subst t1 p1. clear Htp.
    apply bind_ok in H. destruct H as (info & _ & H). apply bind_ok in H. destruct H as (t2 & Hw & H). inversion H; subst t2 p. clear H.
    rewrite deref_get in Ho. rewrite Hn in Ho. inversion Ho; subst o.
    destruct (wr_inv _ _ _ _ Hw) as (-> & o1 & Ho1). rewrite get_tset, N.eqb_refl, Ho1. cbn [option_map]. eexists. split; [reflexivity|].
    reflexivity.
Qed.

Lemma new_step3 P opc s g (Q : N -> pstate -> Prop) :
  FI s g -> newok opc -> lp s + 1 < InvalidIndex ->
  (forall p t' g' po,
     FI (with_tree s t') g' -> gext g g' -> ~ glive g p -> glive g' p -> groot g' p -> kids g' p = [] ->
     tget t' p = Some po -> o_opcode po = opc -> o_value po = None ->
     opcodeTableIndex opc true = Some (o_infoIndex po) ->
     (length (t_pool t') <= S (length (t_pool (p_tree s))))%nat ->
     (forall i o, i <> p -> tget (p_tree s) i = Some o -> tget t' i = Some o) ->
     (forall y, kids g' y = kids g y) ->
     (forall x, glive g' x -> glive g x \/ x = p) ->
     (tget (p_tree s) p = None -> o_name po = name_zero) ->
     (forall o0, tget (p_tree s) p = Some o0 -> o_name po = name_zero) ->
     Q p (with_tree s t')) ->
  wp P (newObj opc) s Q.
Proof.
  intros H Hnk Hroom K. apply wp_run2. eapply new_step2; [exact H|exact Hnk|exact Hroom|].
  intros p t' g' po A1 A2 A3 A4 A5 A6 A7 A8 A9 A10 A11 A12 A13 A14 Erun.
  unfold newObj in Erun. destruct (newObject (p_tree s) opc (p_handle s)) as [[t2 p2]| |] eqn:E; try discriminate.
  inversion Erun; subst p2. assert (t2 = t') by (destruct s; cbn in *; congruence). subst t2.
  apply (K p t' g' po); auto.
  - intros Hn. destruct (newObject_name _ _ _ _ _ E Hn) as (po' & Hpo' & Hnm). assert (po' = po) by congruence. subst. exact Hnm.
  - intros o0 Hn. destruct (newObject_name_old _ _ _ _ _ _ E Hn) as (po' & Hpo' & Hnm). assert (po' = po) by congruence. subst. exact Hnm.
Qed.

Lemma glive_append2 g o a x : glive (astep g (OpAppend o a)) x -> glive g x.
Proof. cbn [astep]. unfold glive. rewrite set_kids_len, set_kids_free. tauto. Qed.

(** ---- parseNextObject ---- *)
Definition xdesc (s : pstate) (g : ghost) (s' : pstate) (g' : ghost) (top x : N) : Prop :=
  exists xo, tget (p_tree s') x = Some xo /\ In x (kids g' top) /\ rowis (o_opcode xo) xo /\
    (tget (p_tree s) x = None -> o_name xo = name_zero) /\
    (forall o0, tget (p_tree s) x = Some o0 -> o_name xo = name_zero) /\
    (msop xo -> forall op fl af, opInfo (o_infoIndex xo) = Some (op, fl, af) -> simple_from af 0 ->
       hasFlag fl aml_pOpFlagDeferParsing = false ->
       exists objs, kids g' x = objs /\ Forall2 (fun ty a => akind ty s' g' a) (otys af 0) objs /\ Forall (fun a => ~ glive g a) objs).

Definition newobjs (g : ghost) (s' : pstate) (xs : option N) : Prop :=
  forall i o', tget (p_tree s') i = Some o' -> o_opcode o' <> opFreed -> ~ glive g i -> xs = Some i \/ benign o'.

Definition T_next (fuel : nat) : Prop := forall s g top rest,
  FI s g -> p_scopeStack s = top :: rest -> room s ->
  spec True (parseNextObject fuel) s g (fun res s' g' =>
    Phi s' <= Phi s + 2 /\ (res = ROk -> Phi s' <= Phi s /\ r_offset (p_r s) < r_offset (p_r s')) /\
    Fw NoP (eq top) s g s' g' /\ SSBx s s' /\ p_handle s' = p_handle s /\
    (res = ROk -> exists xs, newobjs g s' xs /\ forall x, xs = Some x -> ~ glive g x /\ xdesc s g s' g' top x)).

Lemma newobjs_none s g s' : FI s g -> p_tree s' = p_tree s -> newobjs g s' None.
Proof.
  intros H E i o' Ho' Hl Hn. exfalso. apply Hn. apply (R_live_glive _ _ (fi_R _ _ H)). rewrite E in Ho'. exists o'. auto.
Qed.

Lemma tstep_next fuel : T_objargs fuel -> T_name fuel -> T_next (S fuel).
Proof.
  intros IHo IHn s g top rest H Est Hroom. unfold spec. cbn [parseNextObject].
  pose proof (fi_rok _ _ H) as Hrok. pose proof (room_lp _ Hroom) as Hlp.
  assert (Htop : glive g top) by (pose proof (fi_scopes _ _ H) as F; rewrite Est in F; inversion F; auto).
  assert (F0 : Fw NoP (eq top) s g s g) by apply Fw_refl.
  apply wp_bind, wp_get.
  apply wp_bind. apply wp_nextop; auto. intros nextOp ok r1 Hadv Hok Hnok.
  assert (H1 : FI (with_r s r1) g) by (apply FI_adv; auto).
  assert (F1 : Fw NoP (eq top) s g (with_r s r1) g) by (eapply Fw_tree_eq; [exact F0|reflexivity]).
  destruct ok.
  - destruct (Hok eq_refl) as (Hlt & Hop & idx & Hidx & Hbad). clear Hok Hnok.
    assert (A1 : at_ s (with_r s r1) 1 0).
    { eapply at_r; [apply at_refl; auto|destruct Hadv as ((_ & E & _) & _); exact E|lia|destruct Hadv as (_ & _ & L); exact L]. }
    destruct (nextOp =? aml_pOpNoop).
    { apply wp_ret. exists g. destruct (fin_at s g _ g 1 0 H1 A1 (gext_refl g)) as (G1 & G2 & G3).
      split; auto. split; auto. split; [lia|]. split; [intros _; split; [lia|exact Hlt]|]. split; [exact F1|].
      split; [apply SSBx_same; reflexivity|]. split; [reflexivity|]. intros _. exists None.
      split; [apply (newobjs_none s g _ H); reflexivity|intros x E; discriminate]. }
    cbn [negb].
    destruct (valid_op _ _ Hop Hidx Hbad) as (Hnk & Hidx').
    apply wp_bind. eapply new_step3; [exact H1|exact Hnk| |].
    { unfold lp in *. pcbn. lia. }
    intros p t2 g2 po H2 Hext2 Hfresh2 Hlive2 Hroot2 Hkids2 Hpo Hpop Hpval Hpidx Hl2 Hfw2 Hks2 Hnew2 Hname2 Hname2o.
    set (s2 := with_tree (with_r s r1) t2) in *.
    assert (A2 : at_ s s2 1 1) by (eapply at_new'; [exact A1|exact Hl2|reflexivity]).
    assert (F2 : Fw NoP (eq top) s g s2 g2) by (apply (Fw_new NoP (eq top) s g (with_r s r1) g t2 g2 p F1 (fun x Hx => Hx) Hfresh2 Hfw2 Hks2)).
    wwrf H2 Hlive2. intros o3 Hg3 Hlo3 H3.
    match type of H3 with FI ?st _ => set (s3 := st) in * end.
    assert (F3 : Fw NoP (eq top) s g s3 g2) by (apply Fw_tset; [exact F2|pnw_tac|intros h; contradiction]).
    assert (A3 : at_ s s3 1 1) by (apply at_tset; exact A2).
    assert (Est3 : p_scopeStack s3 = top :: rest) by exact Est.
    apply wp_bind. eapply wp_scopeCurrent; [exact Est3|].
    rewrite (FI_ObjectAt _ _ _ H3 (ge_live _ _ Hext2 _ Htop)).
    apply wp_bind. eapply (append_step _ top p s3 g2 g);
      [exact H3|apply (R_gwf _ _ (fi_R _ _ H))|exact Hext2|exact Htop|exact Hfresh2|exact Hlive2|exact Hroot2|].
    intros t4 H4 Hext4 Hpf4 Hk4 Hk4'.
    set (g4 := astep g2 (OpAppend top p)) in *.
    set (s4 := with_tree s3 t4) in *.
    assert (F4 : Fw NoP (eq top) s g s4 g4).
    { apply (Fw_append NoP (eq top) s g s3 g2 t4 g4 top p F3 Hpf4 Hk4 Hk4'). intros _. reflexivity. }
    assert (A4 : at_ s s4 1 1) by (apply at_pframe; auto).
    destruct (at_Phi _ _ _ _ A4) as (P4 & R4).
    assert (Hlive4 : glive g4 p) by (apply glive_set_kids; exact Hlive2).
    assert (Hptop : p <> top) by (intros ->; contradiction).
    assert (Ho4 : exists o4, tget (p_tree s4) p = Some o4 /\ o_opcode o4 = nextOp /\ o_infoIndex o4 = idx /\ o_name o4 = o_name po).
    { assert (Hg3' : tget t2 p = Some o3) by exact Hg3.
      assert (E3 : tget (p_tree s3) p = Some (set_amlOffset (r_offset (p_r s)) o3)).
      { unfold s3, s2. pcbn. rewrite get_tset, N.eqb_refl. rewrite Hg3'. reflexivity. }
      destruct (proj2 Hpf4 _ _ E3) as (o4 & Ho4 & (E1 & E2 & _ & E4 & _)). exists o4. split; [exact Ho4|]. cbn [o_opcode o_infoIndex o_name set_amlOffset] in E1, E2, E4.
      assert (o3 = po) by congruence. subst o3. rewrite Hidx' in Hpidx. inversion Hpidx. split; [congruence|]. split; congruence. }
    destruct Ho4 as (o4 & Ho4 & Eop4 & Eii4 & Enm4).
    assert (Hk4p : kids g4 p = []) by (rewrite (Hk4' p Hptop); exact Hkids2).
    apply wp_run2. eapply wp_weaken; [apply (IHo p s4 g4 H4 Hlive4)|auto|].
    + unfold room in *. lia.
    + intros _ _ _ _ _ _ _. exists top, (kids g2 top). exact Hk4.
    + intros co Hco. assert (co = o4) by congruence. subst co. rewrite Eii4. exists nextOp. auto.
    + intros res s' (g' & G1 & G2 & G3 & G4 & G5 & G6 & G7 & G8 & G9) Erun. exists g'. split; auto.
      split; [eapply Ext_trans; [eapply at_Ext; [exact A4|exact Hext4]|exact G2]|].
      split; [lia|]. split.
      { intros Hr. specialize (G4 Hr). split; [lia|].
        pose proof (ex_off _ _ _ _ G2) as Ho. destruct A4 as (_ & Ao & _). lia. }
      assert (Hg4g : forall y, glive g y -> y <> top -> kids g4 y = kids g y).
      { intros y Hy Hne. rewrite (Hk4' y Hne). apply Hks2. }
      split.
      { eapply Fw_trans; [exact F4|exact G6|apply (ge_live _ _ Hext4)| |].
        - intros i Hi E. subst i. contradiction.
        - intros y Hy [E|Hin]; [subst y; contradiction|].
          destruct (N.eq_dec top y) as [E|E]; [exact E|exfalso]. rewrite (Hg4g y Hy (fun F => E (eq_sym F))) in Hin.
          apply Hfresh2. apply ((R_gwf _ _ (fi_R _ _ H)) y p Hin). }
      split; [exact G7|]. split; [exact G8|].
      intros Hr. exists (Some p). split.
      { intros i o' Ho' Hlo' Hni. destruct (N.eq_dec i p) as [->|Hip]; [left; reflexivity|right].
        destruct (parseObjectArgs_bn fuel p s4 res s' Erun (fi_skip _ _ H4)) as (_ & HBN).
        destruct (HBN i o' Ho') as [(o & Ho & (E1 & E2))|Hb]; [exfalso|exact Hb].
        assert (Hlo : o_opcode o <> opFreed) by congruence.
        assert (Hli4 : glive g4 i) by (apply (R_live_glive _ _ (fi_R _ _ H4)); exists o; auto).
        assert (Hli2 : glive g2 i) by (apply (glive_append2 g2 top p i); exact Hli4).
        destruct (Hnew2 i Hli2) as [F|F]; contradiction. }
      intros x Ex. inversion Ex; subst x. split; [exact Hfresh2|].
      destruct (fw_keep _ _ _ _ _ _ G6 p o4 Hlive4 Ho4) as (xo & Hxo & (E1 & E2 & _ & E4) & _).
      exists xo. split; [exact Hxo|]. split.
      { destruct (fw_kids _ _ _ _ _ _ G6 top (ge_live _ _ Hext4 _ Htop) (fun F => F)) as ((e & Ee) & _).
        rewrite Ee, Hk4. apply in_or_app. left. apply in_or_app. right. left. reflexivity. }
      split; [unfold rowis; rewrite E1, E2, Eop4, Eii4; exact Hidx'|].
      split; [intros Hn; rewrite E4, Enm4; apply Hname2; exact Hn|].
      split; [intros o0 Hn; rewrite E4, Enm4; apply (Hname2o o0); exact Hn|].
      intros Hms op fl af Hrow Hsim Hdf.
      destruct (G9 Hr o4 op fl af Ho4) as (objs & Hko & Hf2 & Hn2); auto.
      { rewrite <- E2. exact Hrow. }
      { unfold msop in Hms. rewrite E1 in Hms. exact Hms. }
      exists objs. split; [rewrite Hko, Hk4p; reflexivity|]. split; [exact Hf2|].
      eapply Forall_impl; [|exact Hn2]. intros a0 Hn0 Hl0. apply Hn0. apply (ge_live _ _ Hext4). exact Hl0.
  - destruct (Hnok eq_refl) as (Ho1 & Hop). clear Hok Hnok. subst nextOp.
    change (0xffff =? aml_pOpNoop) with false. cbn [negb].
    assert (A1 : at_ s (with_r s r1) 0 0) by (apply at_adv0; [apply at_refl; auto|exact Hadv]).
    destruct (at_Phi _ _ _ _ A1) as (P1 & R1).
    apply wp_run2. eapply wp_weaken; [apply (IHn (with_r s r1) g top rest H1)|auto|].
    + exact Est.
    + unfold room in *. lia.
    + intros res s' (g' & G1 & G2 & G3 & G4 & G5 & G6 & G7) Erun. exists g'. split; auto.
      split; [eapply Ext_trans; [eapply at_Ext; [exact A1|apply gext_refl]|exact G2]|].
      split; [lia|]. split.
      { intros Hr. destruct (G4 Hr) as (K5 & K6). split; [lia|]. pcbn_in K6. lia. }
      split; [eapply Fw_trans; [exact F1|exact G5|auto|auto|auto]|].
      split; [apply SSBx_same; exact G6|]. split; [exact G7|].
      intros _. exists None. split; [|intros x E; discriminate].
      intros i o' Ho' Hlo' Hni. right.
      destruct (parseNamePathOrMethodCall_bn fuel (with_r s r1) res s' Erun (fi_skip _ _ H1)) as (_ & HBN).
      destruct (HBN i o' Ho') as [(o & Ho & (E1 & E2))|Hb]; [exfalso|exact Hb].
      apply Hni. apply (R_live_glive _ _ (fi_R _ _ H)). exists o. split; [exact Ho|congruence].
Qed.

Definition tnblock (fuel : nat) : Prop := T_name fuel /\ T_next fuel.
Lemma T_next_all fuel : T_next fuel.
Proof.
  destruct fuel as [|fuel].
  - intros s g top rest _ _ _. exact I.
  - apply tstep_next; [apply (tblock2_all fuel)|].
    destruct fuel as [|fuel]; [intros s g top rest _ _ _; exact I|apply tstep_name].
Qed.

(** ---- the loops of parseObjectList, carrying an invariant [LI] of the object boundaries ---- *)
Section Loops.
Variable LI : pstate -> ghost -> Prop.
Hypothesis LI_next : forall s g top rest s' g',
  FI s g -> LI s g -> p_scopeStack s = top :: rest -> FI s' g' -> gext g g' ->
  Fw NoP (eq top) s g s' g' -> SSBx s s' -> p_handle s' = p_handle s ->
  (exists xs, newobjs g s' xs /\ forall x, xs = Some x -> ~ glive g x /\ xdesc s g s' g' top x) ->
  LI s' g'.
Hypothesis LI_stable : forall s s' g, LI s g -> p_tree s' = p_tree s -> p_handle s' = p_handle s ->
  (forall y, In y (p_scopeStack s') -> In y (p_scopeStack s)) -> LI s' g.

Lemma inner_spec2 : forall fuel s g, FI s g -> p_scopeStack s <> [] -> room s -> LI s g ->
  spec True (objectList_inner fuel) s g (fun ok s' g' =>
    Phi s' <= Phi s + 2 /\ (ok = true -> Phi s' <= Phi s) /\ p_scopeStack s' <> [] /\ (ok = true -> LI s' g')).
Proof.
  induction fuel as [|fuel IH]; intros s g H Hst Hroom HL; unfold spec; cbn [objectList_inner].
  { apply wp_outOfFuel. exact I. }
  apply wp_bind, wp_get. destruct (eof (p_r s)).
  { apply wp_ret. exists g. split; auto. split; [apply Ext_refl|]. split; [lia|]. split; [intros _; lia|]. split; [exact Hst|intros _; exact HL]. }
  destruct (p_scopeStack s) as [|top rest] eqn:Est; [contradiction|].
  apply wp_bind. eapply wp_weaken; [apply (T_next_all fuel s g top rest H Est Hroom)|auto|].
  intros res s1 (g1 & H1 & E1 & P1 & P2 & F1 & S1 & Hh1 & N1).
  assert (Hst1 : p_scopeStack s1 <> []).
  { destruct (ex_scopes _ _ _ _ E1) as (e & Es). rewrite Es, Est. intros E. apply app_eq_nil in E. destruct E as (_ & E). discriminate. }
  destruct (pres_eqb res ROk) eqn:Eres.
  - assert (res = ROk) by (destruct res; try discriminate; reflexivity). subst res. destruct (P2 eq_refl) as (P3 & P4).
    assert (HL1 : LI s1 g1) by (apply (LI_next s g top rest s1 g1 H HL Est H1 (ex_g _ _ _ _ E1) F1 S1 Hh1 (N1 eq_refl))).
    eapply wp_weaken; [apply (IH s1 g1 H1 Hst1)|auto|].
    + unfold room in *. lia.
    + exact HL1.
    + intros ok s' (g' & G1 & G2 & G3 & G4 & G5 & G6). exists g'. split; auto. split; [eapply Ext_trans; eauto|].
      split; [lia|]. split; [intros Hr; specialize (G4 Hr); lia|]. split; [exact G5|exact G6].
  - apply wp_ret. exists g1. split; auto. split; auto. split; [lia|]. split; [discriminate|]. split; [exact Hst1|discriminate].
Qed.

Lemma popPkgEnd_len s u s' : popPkgEnd s = Ok (u, s') -> r_len (p_r s') = r_len (p_r s).
Proof.
  unfold popPkgEnd. destruct (match p_pkgEndStack s with [] => [] | _ :: rest => rest end) as [|top rest'].
  - intros H. inversion H; subst. reflexivity.
  - intros H. inversion H; subst. cbn [p_r with_r with_pkgEndStack]. apply (proj2 (setPkgEnd_off _ top)).
Qed.

Definition LPost (s : pstate) (g : ghost) (res : pres) (s' : pstate) : Prop :=
  exists g', FI s' g' /\ gext g g' /\ Phi s' <= Phi s + 2 /\ r_len (p_r s') = r_len (p_r s) /\ (res = ROk \/ res = RFailed) /\
    (res = ROk -> LI s' g' /\ p_scopeStack s' = []).

Lemma list_spec2 : forall fuel s g, FI s g -> room s -> LI s g -> wp True (parseObjectList fuel) s (LPost s g).
Proof.
  induction fuel as [|fuel IH]; intros s g H Hroom HL; cbn [parseObjectList].
  { apply wp_outOfFuel. exact I. }
  apply wp_bind, wp_get. destruct (p_scopeStack s) as [|x rest] eqn:Est.
  { apply wp_ret. exists g. split; [exact H|]. split; [apply gext_refl|]. split; [lia|]. split; [reflexivity|]. split; [left; reflexivity|]. intros _. split; [exact HL|exact Est]. }
  apply wp_bind. eapply wp_weaken; [apply (inner_spec2 fuel s g H)|auto|].
  { rewrite Est. discriminate. } { exact Hroom. } { exact HL. }
  intros ok s1 (g1 & H1 & E1 & P1 & P2 & Hst1 & HL1).
  pose proof (ex_g _ _ _ _ E1) as G1. pose proof (ex_len _ _ _ _ E1) as L1.
  destruct ok; cbn [negb]; [|apply wp_ret; exists g1; split; [exact H1|]; split; [exact G1|]; split; [exact P1|]; split; [exact L1|]; split; [right; reflexivity|discriminate]].
  specialize (P2 eq_refl). specialize (HL1 eq_refl).
  apply wp_bind, wp_get. apply wp_bind, wp_get.
  destruct (p_scopeStack s1) as [|y rest1] eqn:Est1; [contradiction|].
  assert (Hcont : forall s2, FI s2 g1 -> Phi s2 = Phi s1 -> r_len (p_r s2) = r_len (p_r s1) -> LI s2 g1 ->
     wp True (popPkgEnd ;;; parseObjectList fuel) s2 (LPost s g)).
  { intros s2 H2 EP EL HL2. apply wp_bind. eapply wp_weaken; [apply (wp_and_pc _ _ _ _ (fun _ s3 => p_tree s3 = p_tree s2 /\ p_handle s3 = p_handle s2 /\ r_len (p_r s3) = r_len (p_r s2))
                                                                    (popPkgEnd_spec False s2 g1 H2))|intros []|].
    - intros a s3 E. destruct (ParserTotalRuns.inert_popPkgEnd _ _ _ E) as (Qt & Qh & _). split; [exact Qt|]. split; [exact Qh|apply (popPkgEnd_len _ _ _ E)].
    - intros _ s3 ((H3 & EP3 & ER3 & ESc3 & EPk3) & Et3 & Eh3 & El3).
      eapply wp_weaken; [apply (IH s3 g1 H3)|auto|].
      + unfold room in *. lia.
      + apply (LI_stable s2 s3 g1 HL2 Et3 Eh3). intros y1 Hy1. rewrite ESc3 in Hy1. exact Hy1.
      + intros r s' (g' & F1 & F2 & F3 & F4 & F5 & F6). exists g'. split; [exact F1|]. split; [eapply gext_trans; eauto|].
        split; [lia|]. split; [congruence|]. split; [exact F5|exact F6]. }
  apply wp_bind.
  destruct (Nat.eqb (length (p_pkgEndStack s1)) (length (y :: rest1))).
  - eapply wp_scopeExit; [exact Est1|]. apply Hcont; [|reflexivity|reflexivity|].
    + apply FI_with_scope; [exact H1|]. pose proof (fi_scopes _ _ H1) as F. rewrite Est1 in F. inversion F; auto.
    + apply (LI_stable s1 _ g1 HL1); [reflexivity|reflexivity|]. intros y0 Hy0. cbn [p_scopeStack with_scopeStack] in Hy0. rewrite Est1. right. exact Hy0.
  - apply wp_ret. apply Hcont; [exact H1|reflexivity|reflexivity|exact HL1].
Qed.
End Loops.
