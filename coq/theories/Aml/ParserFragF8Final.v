(** C11 (fragment F8): the recogniser [in_fragment_F8] of the fragment F7 extended by nested packages, its soundness [f8_item_ast],
    and [parse_encode_F8], the instance of [parse_encode_one] (ParserFragF3Final.v) for it.

    F8 = F7 + package elements that are themselves packages: Name(SEG, Package(n){e1, ..., em}) where every element is
    an integer constant, a string, or a Package(n'){...} of such elements, nested to any depth (tables such as _PSS).
    Production added to F7: PackageElement = DefPackage.  The parser reads a nested package with the same object-list
    loop as everything else (the package's ScopeBlock is pushed on the scope stack, its end on the pkgEnd stack);
    connectNamedObjArgs attaches the whole subtree to the Name; the view renders it recursively. *)
From Coq Require Import NArith List Bool.
From FF Require Import Aml.Grammar Aml.WfProgram Aml.ParserFragF0 Aml.ParserFragArgs Aml.ParserFragF1
  Aml.ParserFragF0Final Aml.ParserFragF1Final Aml.ParserFragScope Aml.ParserFragF3Final.
Import ListNotations.
Local Open Scope N_scope.

Fixpoint pel_of (a : ast) : option pel :=
  match a with
  | AConst op v => Some (PLeaf (TInt (mkDecl 0 op v)))
  | AStr b => Some (PLeaf (TStr b))
  | APackage k n es =>
      match (fix go (l : list ast) : option (list pel) :=
               match l with
               | [] => Some []
               | x :: t => match pel_of x, go t with Some i, Some r => Some (i :: r) | _, _ => None end
               end) es with
      | Some l => Some (PSub k n l)
      | None => None
      end
  | _ => None
  end.
Fixpoint pels_of (l : list ast) : option (list pel) :=
  match l with
  | [] => Some []
  | x :: t => match pel_of x, pels_of t with Some i, Some r => Some (i :: r) | _, _ => None end
  end.

Lemma pel_of_ast : forall a x, pel_of a = Some x -> a = pel_ast x.
Proof.
  induction a as [a IH] using ast_body_ind. intros x. destruct a; try discriminate; cbn [pel_of body_of] in *.
  1-2: intros E; inversion E; reflexivity.
  match goal with |- match ?G with _ => _ end = _ -> _ => destruct G as [l|] eqn:El; [|discriminate] end. intros E; inversion E.
  destruct (omap_sound pel_of pel_ast (fun _ => true) elems l (fun y Hy b Hb => conj (IH y Hy b Hb) eq_refl) El) as (-> & _). reflexivity.
Qed.

Lemma pels_of_ast l r : pels_of l = Some r -> l = map pel_ast r.
Proof.
  intros H. apply (omap_sound pel_of pel_ast (fun _ => true) l r); [|exact H].
  intros a _ b Ea. split; [apply pel_of_ast; exact Ea|reflexivity].
Qed.

Fixpoint f8_item (a : ast) : option item :=
  let go := fix go (l : list ast) : option (list item) :=
              match l with
              | [] => Some []
              | x :: t => match f8_item x, go t with Some i, Some r => Some (i :: r) | _, _ => None end
              end in
  let blk (bk : bkind) (k : N) (nm : namestr) (fa : list N) (body : list ast) : option item :=
      match simple_name nm, go body with
      | Some seg, Some b => Some (IBlk bk k seg fa b)
      | _, _ => None
      end in
  match a with
  | AName nm (AConst op v) => match simple_name nm with Some seg => Some (IName (mkDecl seg op v)) | None => None end
  | AName nm (AStr b) => match simple_name nm with Some seg => Some (ILeaf LName seg [] [TStr b]) | None => None end
  | AName nm (APackage k n elems) =>
      match simple_name nm, pels_of elems with Some seg, Some l => Some (IPkg seg k n l) | _, _ => None end
  | ADevice k nm body => blk BDev k nm [] body
  | AThermal k nm body => blk BTZ k nm [] body
  | AProcessor k nm id addr len body => blk BProc k nm [id; addr; len] body
  | APowerRes k nm level order body => blk BPwr k nm [level; order] body
  | AMethod k nm fl body => blk BMeth k nm [fl] body
  | AMutex nm sync => match simple_name nm with Some seg => Some (ILeaf LMutex seg [sync] []) | None => None end
  | AEvent nm => match simple_name nm with Some seg => Some (ILeaf LEvent seg [] []) | None => None end
  | AOpRegion nm space (AConst op1 v1) (AConst op2 v2) =>
      match simple_name nm with Some seg => Some (ILeaf LOpReg seg [space] [TInt (mkDecl 0 op1 v1); TInt (mkDecl 0 op2 v2)]) | None => None end
  | _ => None
  end.

Fixpoint f8_items (l : list ast) : option (list item) :=
  match l with
  | [] => Some []
  | x :: t => match f8_item x, f8_items t with Some i, Some r => Some (i :: r) | _, _ => None end
  end.

Definition f8_titem (a : ast) : option titem :=
  match a with
  | AScope k nm body =>
      match scope_target nm, f8_items body with
      | Some (root, d), Some b => Some (TScope k root d b)
      | _, _ => None
      end
  | _ => match f8_item a with Some it => Some (TItem it) | None => None end
  end.

Fixpoint f8_titems (l : list ast) : option (list titem) :=
  match l with
  | [] => Some []
  | x :: t => match f8_titem x, f8_titems t with Some i, Some r => Some (i :: r) | _, _ => None end
  end.

Definition in_fragment_F8 (tables : list (list ast)) : bool :=
  match tables with
  | [p] => match f8_titems p with Some _ => lenN (encode_table p) <? 0x10000000 | None => false end
  | _ => false
  end.

Lemma f8_item_ast : forall a, sound f8_item a.
Proof.
  induction a as [a IH] using ast_body_ind. intros it.
  destruct a as [ | | | | | | | | | | | | | k nm body | k nm body | k nm id addr len body | k nm level order body | k nm fl body | nm v | nm space off len | | | | nm sync | nm ]; try discriminate; cbn [f8_item body_of] in *.
  1-5: apply (blk_sound f8_item); [reflexivity|exact IH].
  - destruct v; try discriminate; try (intros E; destruct (name_sound _ _ _ E) as (seg & -> & ->); split; reflexivity).
    destruct (simple_name nm) as [seg|] eqn:En; [|discriminate]. apply simple_name_eq in En. subst nm.
    destruct (pels_of elems) as [l|] eqn:El; [apply pels_of_ast in El; subst elems|discriminate].
    intros E; inversion E. split; reflexivity.
  - destruct off; try discriminate. destruct len; try discriminate. intros E; destruct (name_sound _ _ _ E) as (seg & -> & ->); split; reflexivity.
  - intros E; destruct (name_sound _ _ _ E) as (seg & -> & ->); split; reflexivity.
  - intros E; destruct (name_sound _ _ _ E) as (seg & -> & ->); split; reflexivity.
Qed.

Theorem parse_encode_F8 : forall tables,
  wf_program tables = true -> in_fragment_F8 tables = true -> parse_encode_statement tables.
Proof. exact (parse_encode_one f8_item f8_item_ast). Qed.
