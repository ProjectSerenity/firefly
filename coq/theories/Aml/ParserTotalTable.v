(** Facts about the opcode table (pOpcodeTable, opcodeMap, extendedOpcodeMap) that the
    panic-freedom proofs of the passes rely on.  All of them are checked by computation over
    the constants dumped from /repo. *)
From Coq Require Import NArith Arith List Bool Lia.
From Coq Require Import ZifyBool ZifyN ZifyNat.
From FF Require Import Lib.Word Gen.Consts_device_acpi_aml Gen.Consts_aml_tree Aml.Stream Aml.Lex Aml.Tree Aml.TreeSpec.
Import ListNotations.
Local Open Scope N_scope.

(** the two constant dumps (parser package / tree part) agree *)
Lemma pOpcodeTableIndex_eq op b :
  pOpcodeTableIndex op b = match opcodeTableIndex op b with Some i => Ok i | None => Panic end.
Proof.
  unfold pOpcodeTableIndex, opcodeTableIndex, nthN.
  change tree_opcodeMap with aml_opcodeMap. change tree_extendedOpcodeMap with aml_extendedOpcodeMap.
  change tree_badOpcode with aml_badOpcode. change tree_opcodeTableLen with aml_opcodeTableLen.
  destruct (op <=? 0xff).
  - destruct (nth_error aml_opcodeMap (N.to_nat op)); reflexivity.
  - destruct (nth_error aml_extendedOpcodeMap (N.to_nat (op - 0xff))) as [i|]; [|reflexivity].
    destruct ((i =? aml_badOpcode) && b); [|reflexivity].
    f_equal. f_equal. lia.
Qed.

Lemma opFreed_val : opFreed = aml_pOpIntFreedObject. Proof. reflexivity. Qed.

(** ---- opcodes an object may be created with ---- *)
Definition newok (opc : N) : Prop :=
  opc <> opFreed /\ opcode_in_maps opc /\ exists i, opcodeTableIndex opc true = Some i /\ opInfo i <> None.

Definition newokb (opc : N) : bool :=
  negb (opc =? opFreed) && (opc <=? 0x1fe) &&
  match opcodeTableIndex opc true with
  | Some i => match opInfo i with Some _ => true | None => false end
  | None => false
  end.

Lemma newokb_sound opc : newokb opc = true -> newok opc.
Proof.
  unfold newokb, newok. intros H. apply andb_prop in H. destruct H as [H H3]. apply andb_prop in H. destruct H as [H1 H2].
  split; [intros E; rewrite E, N.eqb_refl in H1; discriminate|].
  split.
  - unfold opcode_in_maps. change (length tree_extendedOpcodeMap) with 256%nat. apply N.leb_le in H2. lia.
  - destruct (opcodeTableIndex opc true) as [i|]; [|discriminate]. exists i. split; auto.
    destruct (opInfo i); [discriminate|discriminate].
Qed.

Definition ops511 : list N := map N.of_nat (seq 0 511).

Lemma In_ops511 op : op <= 0x1fe -> In op ops511.
Proof.
  intros H. unfold ops511. apply in_map_iff. exists (N.to_nat op). split; [apply N2Nat.id|].
  apply in_seq. lia.
Qed.

Definition valid_op_check (op : N) : bool :=
  match opcodeTableIndex op false with
  | Some idx => (idx =? aml_badOpcode) ||
                (newokb op && match opcodeTableIndex op true with Some j => j =? idx | None => false end)
  | None => true
  end.

Lemma valid_ops_ok : forallb valid_op_check ops511 = true.
Proof. vm_compute. reflexivity. Qed.

(** an opcode accepted by nextOpcode *)
Lemma valid_op op idx : op <= 0x1fe -> opcodeTableIndex op false = Some idx -> idx <> aml_badOpcode ->
  newok op /\ opcodeTableIndex op true = Some idx.
Proof.
  intros Hop Hi Hb. pose proof (proj1 (forallb_forall _ _) valid_ops_ok op (In_ops511 op Hop)) as H.
  unfold valid_op_check in H. rewrite Hi in H. apply N.eqb_neq in Hb. rewrite Hb in H. cbn [orb] in H.
  apply andb_prop in H. destruct H as [H1 H2]. split; [apply newokb_sound; exact H1|].
  destruct (opcodeTableIndex op true) as [j|]; [|discriminate]. apply N.eqb_eq in H2. congruence.
Qed.

Lemma newok_const :
  newok 0 /\ newok aml_pOpIntConnection /\ newok aml_pOpIntByteList /\ newok aml_pOpIntNamePath /\
  newok aml_pOpIntNamedField /\ newok aml_pOpIntScopeBlock /\ newok aml_pOpIntNamePathOrMethodCall /\
  newok aml_pOpBytePrefix /\ newok aml_pOpWordPrefix /\ newok aml_pOpDwordPrefix /\ newok aml_pOpQwordPrefix /\
  newok aml_pOpStringPrefix.
Proof. repeat split; try (apply newokb_sound; reflexivity); apply (proj1 (newokb_sound _ eq_refl)). Qed.

(** ---- argument lists ---- *)
Definition idx8 : list N := [0; 1; 2; 3; 4; 5; 6; 7].

Lemma In_idx8 i : i < 8 -> In i idx8.
Proof.
  intros H. assert (C : i = 0 \/ i = 1 \/ i = 2 \/ i = 3 \/ i = 4 \/ i = 5 \/ i = 6 \/ i = 7) by lia.
  unfold idx8. cbn [In]. intuition.
Qed.

Lemma argCount_go_le n : forall fl, argCount_go n fl <= N.of_nat n.
Proof.
  induction n as [|n IH]; intros fl; cbn [argCount_go]; [lia|].
  destruct (N.land fl 0xf =? 0); [lia|]. specialize (IH (N.shiftr fl 8)). lia.
Qed.

Lemma argCount_le8 fl : argCount fl <= 8.
Proof. unfold argCount. pose proof (argCount_go_le 8 fl). lia. Qed.

Lemma opInfo_In ii op fl af : opInfo ii = Some (op, fl, af) -> In [op; fl; af] aml_opcodeTable.
Proof.
  unfold opInfo. destruct (nth_error aml_opcodeTable (N.to_nat ii)) as [row|] eqn:E; [|discriminate].
  destruct row as [|a [|b [|c [|d rest]]]]; try discriminate. intros H; inversion H; subst.
  eapply nth_error_In; eauto.
Qed.

(** a FieldList argument always follows a ByteData argument (the field flags) *)
Definition row_fl_check (row : list N) : bool :=
  match row with
  | [op; fl; af] =>
      forallb (fun i => negb (argType af i =? aml_pArgTypeFieldList) ||
                        ((1 <=? i) && (argType af (i - 1) =? aml_pArgTypeByteData))) idx8
  | _ => true
  end.

Lemma rows_fl_ok : forallb row_fl_check aml_opcodeTable = true.
Proof. vm_compute. reflexivity. Qed.

Lemma fieldlist_after_bytedata ii op fl af i :
  opInfo ii = Some (op, fl, af) -> i < 8 -> argType af i = aml_pArgTypeFieldList ->
  1 <= i /\ argType af (i - 1) = aml_pArgTypeByteData.
Proof.
  intros Hi Hlt Ht. pose proof (proj1 (forallb_forall _ _) rows_fl_ok _ (opInfo_In _ _ _ _ Hi)) as H.
  cbn [row_fl_check] in H. pose proof (proj1 (forallb_forall _ _) H i (In_idx8 i Hlt)) as H'. cbv beta in H'.
  rewrite Ht, N.eqb_refl in H'. cbn [negb orb] in H'. apply andb_prop in H'. destruct H' as [H1 H2].
  apply N.leb_le in H1. apply N.eqb_eq in H2. auto.
Qed.

(** the operators parseTarget accepts take no FieldList *)
Definition target_cond (op : N) : bool :=
  isArg op || (op =? aml_pOpRefOf) || (op =? aml_pOpDerefOf) || (op =? aml_pOpIndex) || (op =? aml_pOpDebug).

Definition no_fieldlist (af : N) : bool :=
  forallb (fun i => negb (argType af i =? aml_pArgTypeFieldList)) idx8.

Definition target_check (op : N) : bool :=
  negb (target_cond op) ||
  match opcodeTableIndex op true with
  | Some i => match opInfo i with Some (_, _, af) => no_fieldlist af | None => false end
  | None => false
  end.

Lemma target_ok : forallb target_check ops511 = true.
Proof. vm_compute. reflexivity. Qed.

Lemma target_no_fieldlist op i o fl af k :
  op <= 0x1fe -> target_cond op = true -> opcodeTableIndex op true = Some i -> opInfo i = Some (o, fl, af) ->
  k < 8 -> argType af k <> aml_pArgTypeFieldList.
Proof.
  intros Hop Hc Hi Hr Hk. pose proof (proj1 (forallb_forall _ _) target_ok op (In_ops511 op Hop)) as H.
  unfold target_check in H. rewrite Hc, Hi, Hr in H. cbn [negb orb] in H.
  pose proof (proj1 (forallb_forall _ _) H k (In_idx8 k Hk)) as H'. cbv beta in H'.
  intros E. rewrite E, N.eqb_refl in H'. discriminate.
Qed.

(** a ByteList argument only ever follows a TermArg / DataRefObj argument (Buffer), at which the first pass stops *)
Definition row_bl_check (row : list N) : bool :=
  match row with
  | [op; fl; af] =>
      forallb (fun j => negb (argType af j =? aml_pArgTypeByteList) ||
                        existsb (fun j' => (j' <? j) && ((argType af j' =? aml_pArgTypeTermArg) || (argType af j' =? aml_pArgTypeDataRefObj))) idx8) idx8
  | _ => true
  end.

Lemma rows_bl_ok : forallb row_bl_check aml_opcodeTable = true.
Proof. vm_compute. reflexivity. Qed.

Lemma bytelist_shielded ii op fl af j :
  opInfo ii = Some (op, fl, af) -> j < 8 -> argType af j = aml_pArgTypeByteList ->
  exists j', j' < j /\ (argType af j' = aml_pArgTypeTermArg \/ argType af j' = aml_pArgTypeDataRefObj).
Proof.
  intros Hi Hlt Ht. pose proof (proj1 (forallb_forall _ _) rows_bl_ok _ (opInfo_In _ _ _ _ Hi)) as H.
  cbn [row_bl_check] in H. pose proof (proj1 (forallb_forall _ _) H j (In_idx8 j Hlt)) as H'. cbv beta in H'.
  rewrite Ht, N.eqb_refl in H'. cbn [negb orb] in H'. apply existsb_exists in H'. destruct H' as (j' & _ & H').
  apply andb_prop in H'. destruct H' as [H1 H2]. apply N.ltb_lt in H1. exists j'. split; auto.
  apply orb_prop in H2. destruct H2 as [H2|H2]; apply N.eqb_eq in H2; auto.
Qed.

(** scanning the arguments from index [i]: is there a TermList (which enters a scope) that is not preceded by a
    PkgLen (which pushes a package end)? *)
Fixpoint owe_go (n : nat) (af i : N) : bool :=
  match n with
  | O => false
  | S n' => if argType af i =? aml_pArgTypeTermList then true
            else if argType af i =? aml_pArgTypePkgLen then false
            else owe_go n' af (i + 1)
  end.
Definition oweb (af i : N) : bool := owe_go (8 - N.to_nat i) af i.

Lemma oweb_step af i : i < 8 ->
  oweb af i = if argType af i =? aml_pArgTypeTermList then true
              else if argType af i =? aml_pArgTypePkgLen then false
              else oweb af (i + 1).
Proof.
  intros H. unfold oweb. replace (8 - N.to_nat i)%nat with (S (8 - N.to_nat (i + 1))) by lia. reflexivity.
Qed.

Definition ext_owe_check (op : N) : bool :=
  match opcodeTableIndex op false with
  | Some idx => (idx =? aml_badOpcode) ||
                match opInfo idx with Some (_, _, af) => negb (oweb af 0) | None => true end
  | None => true
  end.

Lemma ext_owe_ok : forallb ext_owe_check ops511 = true.
Proof. vm_compute. reflexivity. Qed.

(** in the row of every opcode that nextOpcode accepts, a TermList argument is preceded by a PkgLen argument
    (the internal pOpIntScopeBlock row is the only one where it is not) *)
Lemma termlist_after_pkglen op idx o fl af :
  op <= 0x1fe -> opcodeTableIndex op false = Some idx -> idx <> aml_badOpcode -> opInfo idx = Some (o, fl, af) ->
  oweb af 0 = false.
Proof.
  intros Hop Hi Hb Hr. pose proof (proj1 (forallb_forall _ _) ext_owe_ok op (In_ops511 op Hop)) as H.
  unfold ext_owe_check in H. rewrite Hi, Hr in H. apply N.eqb_neq in Hb. rewrite Hb in H. cbn [orb] in H.
  destruct (oweb af 0); [discriminate|reflexivity].
Qed.
