(** The whole-parser invariant of Aml/ParserProofs.v for a sequence of tables loaded one after the other. *)
From Coq Require Import NArith List Lia.
From FF Require Import Lib.Word Aml.Stream Aml.Tree Aml.Parser Aml.ParserProofs.
Import ListNotations.
Local Open Scope N_scope.

Definition payload_ok (p : list N) : Prop := Forall (fun b => b < 256) p /\ N.of_nat (length p) + 2048 <= two32.

(** [load] with the default-scope tree abstracted: no evaluation of the closed term *)
Lemma load_with (o : outcome (ObjectTree value)) payloads class t imgs :
  (forall t0, o = Ok t0 -> pool_ok [] t0) ->
  Forall payload_ok payloads ->
  match o with
  | Ok t0 => load_tables t0 [] 1 payloads
  | Panic => (2, NewObjectTree, [])
  | OutOfFuel => (3, NewObjectTree, [])
  end = (class, t, imgs) ->
  class = 0 \/ class = 1 -> pool_ok imgs t.
Proof.
  intros Hd Hall E Hc. destruct o as [t0| |].
  - eapply load_tables_ok; eauto.
  - inversion E; subst. destruct Hc; discriminate.
  - inversion E; subst. destruct Hc; discriminate.
Qed.

Local Opaque CreateDefaultScopes.

(** C12, the stray-pointer part of parse_total for ALL passes: whatever byte strings are loaded, if the parser
    returns (success or its parse error), every []byte in the pool lies inside the image of its table *)
Theorem parse_slices_inside : forall payloads class t imgs,
  Forall payload_ok payloads ->
  load payloads = (class, t, imgs) -> class = 0 \/ class = 1 -> pool_ok imgs t.
Proof.
  intros payloads class t imgs Hall E Hc.
  exact (load_with (CreateDefaultScopes (@NewObjectTree value) 0) payloads class t imgs
                   (fun t0 H => CreateDefaultScopes_ok [] 0 t0 H) Hall E Hc).
Qed.
