(** parseDeferredBlocks: the step of parseStrictTermArg - an operator or a name is parsed below the current
    object and detached again. *)
From Coq Require Import NArith Arith List Bool Lia.
From Coq Require Import ZifyBool ZifyN ZifyNat.
From FF Require Import Lib.Word Gen.Consts_device_acpi_aml Gen.Consts_aml_tree Aml.Stream Aml.Lex Aml.LexProofs
  Aml.Tree Aml.Parser Aml.ParserProofs Aml.TreeSpec Aml.TreeProofs Aml.TreeProofsOps Aml.TreeProofsFind Aml.TreeProofsAnc
  Aml.ParserTotalTree Aml.ParserTotalTree2 Aml.ParserTotalLex Aml.ParserTotalTable Aml.ParserTotalBase Aml.ParserTotalLeaf
  Aml.ParserTotalFrame Aml.ParserTotalLeaf2 Aml.ParserTotalFirst Aml.ParserTotalConn Aml.ParserTotalReloc Aml.ParserTotalDefer.
Import ListNotations.
Local Open Scope N_scope.

(** peekNextOpcode = nextOpcode with the offset put back *)
Lemma peek_next r : rok r ->
  exists op ok r1, nextOpcode r = Ok (op, ok, r1) /\ peekNextOpcode r = Ok (op, ok, r) /\ adv r r1 /\
    (ok = true -> r_offset r < r_offset r1 /\ op <= 0x1fe /\
                  exists idx, opcodeTableIndex op false = Some idx /\ idx <> aml_badOpcode) /\
    (ok = false -> r_offset r1 = r_offset r /\ op = 0xffff).
Proof.
  intros H. destruct (nextOpcode_off r H) as (op & ok & r1 & E & A & K1 & K2).
  exists op, ok, r1. split; [exact E|]. split; [|auto].
  unfold peekNextOpcode. rewrite E. cbn [bind]. f_equal. f_equal.
  destruct A as ((Ed & El & Ep) & _ & _). destruct H as (_ & _ & O).
  unfold setOffset. rewrite El. assert (Hlt : (r_len r <? r_offset r) = false) by (apply N.ltb_ge; exact O). rewrite Hlt.
  destruct r as [d l o p], r1 as [d1 l1 o1 p1]. cbn in *. subst. reflexivity.
Qed.

Lemma wp_peekop P s (Q : N * bool -> pstate -> Prop) : rok (p_r s) ->
  (forall op ok r1, nextOpcode (p_r s) = Ok (op, ok, r1) -> adv (p_r s) r1 ->
     (ok = true -> r_offset (p_r s) < r_offset r1 /\ op <= 0x1fe /\
                   exists idx, opcodeTableIndex op false = Some idx /\ idx <> aml_badOpcode) ->
     (ok = false -> op = 0xffff) -> Q (op, ok) (with_r s (p_r s))) ->
  wp P (lex peekNextOpcode) s Q.
Proof.
  intros H K. destruct (peek_next _ H) as (op & ok & r1 & E & Ep & A & K1 & K2).
  apply wp_lex. exists op, ok, (p_r s). split; [exact Ep|]. apply (K op ok r1 E A K1). intros Eo. apply (K2 Eo).
Qed.

(** popPkgEnd: total, touches only the pkgEnd stack and the reader's pkgEnd *)
Lemma wp_popPkgEnd {md} P s g (Q : unit -> pstate -> Prop) : FIm md s g ->
  (forall s', FIm md s' g -> p_tree s' = p_tree s -> p_scopeStack s' = p_scopeStack s ->
              r_offset (p_r s') = r_offset (p_r s) -> r_len (p_r s') = r_len (p_r s) -> Q tt s') ->
  wp P popPkgEnd s Q.
Proof.
  intros H K. unfold wp, popPkgEnd.
  destruct (match p_pkgEndStack s with [] => [] | _ :: rest => rest end) as [|topE st] eqn:E.
  - apply K; auto. apply FI_with_pkgEnd. exact H.
  - destruct (setPkgEnd_off (p_r (with_pkgEndStack s (topE :: st))) topE) as (Eo & El).
    apply K; auto.
    apply FI_with_r; [apply FI_with_pkgEnd; exact H|]. apply rok_setPkgEnd. apply (fi_rok _ _ H).
Qed.

Section StepS.
Variable tbls : list (list N).
Notation IV := (Inv tbls).

Lemma mtyped_pframe_kids s g (t' : T) g' m c :
  gwf g -> mtyped s g m -> pframe (p_tree s) t' -> (forall q, q <> c -> kids g' q = kids g q) -> m <> c -> notnp s c ->
  mtyped (with_tree s t') g' m.
Proof.
  intros Hwf (a0 & a1 & rest & a0o & a1o & v & Hk & Ha0 & Hn0 & Ha1 & Hv & Hn1 & Hmx) Hpf Ekq Hmc Hnc.
  destruct (proj2 Hpf _ _ Ha0) as (a0o' & Ha0' & E0). destruct (proj2 Hpf _ _ Ha1) as (a1o' & Ha1' & E1).
  destruct (pay_eq_pnv _ _ E0) as (E0' & _). destruct (pay_eq_pnv _ _ E1) as (E1' & V1).
  assert (Ha0c : a0 <> c) by (intros ->; destruct Hmx as (_ & M2 & _); exact (Hnc a0o Ha0 M2)).
  exists a0, a1, rest, a0o', a1o', v. rewrite (Ekq m Hmc). split; [exact Hk|]. split; [exact Ha0'|]. split; [eapply nodefer_pnv; eauto|].
  split; [exact Ha1'|]. split; [congruence|]. split; [eapply nodefer_pnv; eauto|].
  apply (mx_pnv g g' a0 a0o a0o' a1o a1o' E0' E1' (Ekq a0 Ha0c) Hmx).
Qed.

(** the end of both branches: at the end of the package the pkgEnd stack is popped *)
Lemma strict_tail (a : option N) (res : pres) s g (Q : option N * pres -> pstate -> Prop) :
  FD s g ->
  (forall s', FD s' g -> p_tree s' = p_tree s -> p_scopeStack s' = p_scopeStack s ->
              r_offset (p_r s') = r_offset (p_r s) -> r_len (p_r s') = r_len (p_r s) -> Q (a, res) s') ->
  wp True (mlet e <~ eofM ;; (if e then popPkgEnd else ret tt) ;;; ret (a, res)) s Q.
Proof.
  intros H K. apply wp_bind, wp_get. destruct (eof (p_r s)).
  - apply wp_bind. eapply wp_popPkgEnd; [exact H|]. intros s' H' E1 E2 E3 E4. apply wp_ret. apply K; auto.
  - apply wp_bind. apply wp_ret. apply wp_ret. apply K; auto.
Qed.

Lemma remove1_last_fresh (p : N) l : ~ In p l -> remove1 p (l ++ [p]) = l.
Proof.
  induction l as [|x l IH]; intros Hn; cbn [app remove1].
  - rewrite N.eqb_refl. reflexivity.
  - destruct (N.eqb_spec x p) as [->|Hne]; [exfalso; apply Hn; left; reflexivity|]. rewrite IH; auto. intros F. apply Hn. right. exact F.
Qed.

Lemma kids_detach g o a q : o < N.of_nat (length (g_kids g)) ->
  kids (astep g (OpDetach o a)) q = if q =? o then remove1 a (kids g o) else kids g q.
Proof. intros Ho. cbn [astep]. rewrite kids_set_kids by exact Ho. destruct (q =? o) eqn:E; [apply N.eqb_eq in E; subst|]; reflexivity. Qed.

Lemma gext_detach_fresh g0 g o a : gext g0 g -> ~ glive g0 a -> gwf g0 -> o < N.of_nat (length (g_kids g)) ->
  gext g0 (astep g (OpDetach o a)).
Proof.
  intros [A1 A2 A3] Hna Hwf Ho. constructor.
  - intros x Hx. apply glive_detach. apply A1. exact Hx.
  - intros p c Hin Hc. rewrite kids_detach in Hin by exact Ho. apply (A2 p c); [|exact Hc].
    destruct (p =? o) eqn:E; [apply N.eqb_eq in E; subst; eapply remove1_In; eauto|exact Hin].
  - intros p c Hin. rewrite kids_detach by exact Ho. pose proof (A3 p c Hin) as Hin'.
    destruct (p =? o) eqn:E; [|exact Hin']. apply N.eqb_eq in E. subst p. apply In_remove1_neq; [|exact Hin'].
    intros ->. apply Hna. apply (Hwf o a Hin).
Qed.

(** detaching the object [x] that was appended to [c] last *)
Lemma detach_last_step P c x s g0 g (Q : unit -> pstate -> Prop) :
  FD s g -> gwf g0 -> gext g0 g -> glive g0 c -> ~ glive g0 x -> kids g c = kids g0 c ++ [x] ->
  (forall t', let g' := astep g (OpDetach c x) in
     FD (with_tree s t') g' -> gext g0 g' -> pframe (p_tree s) t' -> kids g' c = kids g0 c ->
     (forall q, q <> c -> kids g' q = kids g q) -> glive g' x -> groot g' x ->
     Q tt (with_tree s t')) ->
  wp P (detachM (Some c) (Some x)) s Q.
Proof.
  intros H Hwf Hext Hlc Hnx Hk K. pose proof (fi_R _ _ H) as HR.
  assert (Hin : In x (kids g c)) by (rewrite Hk; apply in_or_app; right; left; reflexivity).
  destruct (detach_full (p_tree s) g c x HR Hin) as (t' & E & HR' & Hpf).
  assert (Hclt : c < N.of_nat (length (g_kids g))) by (apply glive_lt; apply (ge_live _ _ Hext); exact Hlc).
  assert (Hnin : ~ In x (kids g0 c)) by (intros F; apply Hnx; apply (Hwf c x F)).
  apply wp_detachM. exists t'. split; [exact E|]. apply K.
  - apply FI_with_tree with (g := g); auto.
    + eapply info_valid_pframe; [apply (fi_info _ _ H)|exact Hpf].
    + intros y Hy. apply glive_detach. exact Hy.
  - apply gext_detach_fresh; auto.
  - exact Hpf.
  - rewrite kids_detach by exact Hclt. rewrite N.eqb_refl, Hk. apply remove1_last_fresh. exact Hnin.
  - intros q Hq. rewrite kids_detach by exact Hclt. apply N.eqb_neq in Hq. rewrite Hq. reflexivity.
  - apply glive_detach. apply ((R_gwf _ _ HR) c x Hin).
  - intros q Hq. rewrite kids_detach in Hq by exact Hclt. destruct (q =? c) eqn:Eq.
    + rewrite Hk, remove1_last_fresh in Hq by exact Hnin. contradiction.
    + apply N.eqb_neq in Eq. apply Eq. eapply (R_parent_unique _ _ HR); eauto.
Qed.

Lemma strict_cond_eq op : negb (isType2 op) && negb (isDataObject op) && negb (isArg op) = negb (strict_cond op).
Proof. unfold strict_cond. destruct (isType2 op), (isDataObject op), (isArg op); reflexivity. Qed.

Lemma Psi_eq s s' : p_tree s' = p_tree s -> r_offset (p_r s') = r_offset (p_r s) -> r_len (p_r s') = r_len (p_r s) -> Psi s' = Psi s.
Proof. intros E1 E2 E3. unfold Psi, lp, rem. rewrite E1, E2, E3. reflexivity. Qed.

(** both branches end alike: the object [x] that was appended to [curObj] last is detached again and returned *)
Lemma strict_close curObj x (res : pres) s g s6 g6 :
  R (p_tree s) g -> TM NoX s g -> glive g curObj -> notnp s curObj ->
  FD s6 g6 -> ExtD s g s6 g6 -> keep NoP s g s6 -> ~ glive g x -> kids g6 curObj = kids g curObj ++ [x] ->
  (forall y, glive g y -> y <> curObj -> kids g6 y = kids g y) ->
  Psi s6 <= Psi s + 1 -> res <> RShort ->
  (res = ROk -> Psi s6 + 4 <= Psi s /\ TM NoX s6 g6 /\ p_scopeStack s6 = p_scopeStack s) ->
  wp True (detachM (Some curObj) (Some x)) s6 (fun _ s7 =>
    wp True (mlet e <~ eofM ;; (if e then popPkgEnd else ret tt) ;;; ret (Some x, res)) s7 (StrictPost curObj s g)).
Proof.
  intros HR HTM Hl Hnnp H6 X6 Hkeep6 Hnx Hkc6 Hkids6 HP6 Hns Hok.
  pose proof (R_gwf _ _ HR) as Hwf.
  eapply (detach_last_step _ curObj x s6 g g6); [exact H6|exact Hwf|apply (xd_g _ _ _ _ X6)|exact Hl|exact Hnx|exact Hkc6|].
  intros t7 g7 H7 Hext7 Hpf7 Hkc7 Hkq7 Hlive7 Hroot7.
  set (s7 := with_tree s6 t7) in *.
  apply (strict_tail (Some x) res s7 g7); [exact H7|].
  intros s8 H8 E81 E82 E83 E84.
  assert (EP8 : Psi s8 = Psi s6).
  { unfold Psi, lp, rem. rewrite E81, E83, E84. unfold s7. pcbn. rewrite (proj1 Hpf7). reflexivity. }
  exists g7. split; [exact H8|].
  split.
  { constructor; [exact Hext7| | |].
    - rewrite E84. exact (xd_len _ _ _ _ X6).
    - rewrite E83. exact (xd_off _ _ _ _ X6).
    - rewrite E82. exact (xd_scopes _ _ _ _ X6). }
  assert (Hkeep8 : keep NoP s g s8).
  { apply keep_gets with (s1 := s7); [|intros i _; rewrite E81; reflexivity]. apply keep_pframe; [exact Hkeep6|exact Hpf7]. }
  assert (Hkids8 : forall y, glive g y -> kids g7 y = kids g y).
  { intros y Hy. destruct (N.eq_dec y curObj) as [->|Hne]; [exact Hkc7|]. rewrite (Hkq7 y Hne). apply Hkids6; auto. }
  assert (F8 : Fr NoP NoP NoP s g s8 g7).
  { constructor; [exact Hkeep8|]. intros y Hy _. rewrite (Hkids8 y Hy).
    split; [exists []; rewrite app_nil_r; reflexivity|reflexivity]. }
  split; [eapply Fr_weaken; [| | |exact F8]; auto; intros y _ []|].
  split; [cbn [fresh_root]; split; [exact Hnx|split; [exact Hlive7|exact Hroot7]]|].
  split; [lia|]. split; [exact Hns|].
  intros Hr. destruct (Hok Hr) as (K1 & K2 & K3). split; [lia|]. split; [|split].
  - eapply (TM_frame2 NoX NoX NoP NoP NoP s g s8 g7 Hwf HR HTM F8); try (intros; contradiction); try apply Eok_NoP.
    intros m mo Hm Hmop Hnl. right.
    rewrite E81 in Hm. unfold s7 in Hm. pcbn_in Hm.
    destruct (pframe_inv _ _ _ _ Hpf7 Hm) as (mo6 & Hm6 & E6 & _).
    assert (Ht6 : mtyped s6 g6 m) by (apply (K2 m mo6 Hm6); [congruence|intros []]).
    assert (Hmc : m <> curObj) by (intros E; subst m; contradiction).
    pose proof (notnp_keep NoP s g s6 curObj Hkeep6 HR Hl Hnnp) as Hnnp6.
    pose proof (mtyped_pframe_kids s6 g6 t7 g7 m curObj (R_gwf _ _ (fi_R _ _ H6)) Ht6 Hpf7 Hkq7 Hmc Hnnp6) as Ht7.
    destruct Ht7 as (a0 & a1 & rest & a0o & a1o & v & Q1 & Q2 & Q3 & Q4 & Q5 & Q6 & Q7).
    exists a0, a1, rest, a0o, a1o, v. rewrite E81. auto 10.
  - rewrite E82. exact K3.
  - apply Hkids8. exact Hl.
Qed.

Lemma step_Dstrict fuel : D_name tbls fuel -> D_objargs tbls fuel -> D_strict tbls (S fuel).
Proof.
  intros IHn IHo curObj s g H I0 H0 Hl Hroom HTM Hnnp. cbn [parseStrictTermArg].
  pose proof (fi_rok _ _ H) as Hrok. pose proof (roomD_lp _ _ Hroom) as Hlp.
  pose proof (fi_R _ _ H) as HR. pose proof (R_gwf _ _ HR) as Hwf.
  wbi tbls I0. apply wp_get. intros _.
  wbi tbls I0. apply wp_peekop; auto. intros nextOp ok r1 Enx Hadv Hok Hnok I1.
  set (s1 := with_r s (p_r s)) in *.
  assert (H1 : FD s1 g) by (apply FI_with_r; auto).
  assert (F1 : Fr NoP (eq curObj) NoP s g s1 g) by (eapply Fr_tree_eq; [apply Fr_refl|reflexivity]).
  assert (EP1 : Psi s1 = Psi s) by reflexivity.
  assert (A1 : at_ s s1 0 0).
  { eapply at_r; [apply at_refl; auto|reflexivity|lia|destruct Hrok as (_ & _ & O); exact O]. }
  destruct ok; cbn [negb].
  - (* an operator *)
    destruct (Hok eq_refl) as (Hlt & Hop & idx & Hidx & Hbad). clear Hok Hnok.
    rewrite strict_cond_eq. destruct (strict_cond nextOp) eqn:Esc; cbn [negb].
    2:{ apply wp_ret. exists g. split; [exact H1|]. split; [constructor; [apply gext_refl|reflexivity|unfold s1; pcbn; lia|exists []; reflexivity]|].
        split; [exact F1|]. split; [exact I|]. split; [lia|]. split; [discriminate|]. intros E; discriminate. }
    wbi tbls I1. apply wp_lex. exists nextOp, true, r1. split; [exact Enx|]. intros I2.
    set (s2 := with_r s1 r1) in *.
    assert (H2 : FD s2 g) by (apply FI_adv; auto).
    assert (F2 : Fr NoP (eq curObj) NoP s g s2 g) by (eapply Fr_tree_eq; [apply Fr_refl|reflexivity]).
    assert (A2 : at_ s s2 1 0).
    { eapply at_r; [exact A1|destruct Hadv as ((_ & E & _) & _); exact E|unfold s1; pcbn; lia|destruct Hadv as (_ & _ & L); exact L]. }
    destruct (valid_op _ _ Hop Hidx Hbad) as (Hnk & Hidx').
    eapply (new_off_step tbls (eq curObj) nextOp _ 1 _ s g s2); [exact H2|exact I2|exact F2|exact A2|exact Hnk| |].
    { unfold lp in *. unfold s2, s1. pcbn. lia. }
    intros p t3 g3 po s4 H4 I4 Hext3 Hfresh3 Hlive3 Hroot3 Hkids3 Hks3 Hlv3 Hpo Hp4 Hpop Hpval Hpidx F4 A4.
    wbi tbls I4. eapply (append_new_step curObj p _ 1 s g s4 g3); [exact HR|exact HTM|exact Hnnp|exact Hl|exact H0|exact H4|exact Hext3|
      exact Hfresh3|exact Hlive3|exact Hroot3|exact Hkids3|exact Hks3|exact Hlv3|exact Hp4|exact F4|exact A4|].
    intros t5 g5 s5 H5 Hext5 Hpf5 F5 A5 Hkc5 Hkp5 Hlive5 H05 Hpc (po5 & Hpo5 & Eop5 & Eii5) HTM5 Hnota5 I5.
    pose proof (at_Psi _ _ _ _ A5) as P5.
    cbn [o_opcode o_infoIndex set_amlOffset] in Eop5, Eii5. rewrite Hpop in Eop5.
    destruct (opInfo idx) as [[[rop rfl] raf]|] eqn:Erow.
    2:{ exfalso. destruct Hnk as (_ & _ & i0 & Hi0 & Hinf0). rewrite Hidx' in Hi0. inversion Hi0; subst i0. contradiction. }
    destruct (strict_facts nextOp idx rop rfl raf Hop Esc Hidx' Erow) as (Hnm & Hnfl).
    assert (Hii : o_infoIndex po5 = idx) by (rewrite Eii5; rewrite Hidx' in Hpidx; inversion Hpidx; reflexivity).
    assert (Hnofl : ~ hasfl s5 p).
    { intros (co & op' & fl' & af' & Hco & Hinfo & (k & Hk & Hfl)). assert (co = po5) by congruence. subst co.
      rewrite Hii, Erow in Hinfo. inversion Hinfo; subst. exact (Hnfl k Hk Hfl). }
    wbi tbls I5. eapply wp_weaken; [apply (IHo p s5 g5 H5 I5 H05 Hlive5)| |].
    + unfold roomD in *. lia.
    + exact HTM5.
    + intros co Hco Hcop. exfalso. assert (co = po5) by congruence. subst co. rewrite Eop5 in Hcop. contradiction.
    + intros F. contradiction.
    + exact Hnota5.
    + auto.
    + intros res s6 (g6 & H6 & X6 & G3 & G4 & G5 & G6 & G7) I6.
      assert (Hext6 : gext g g6) by (eapply gext_trans; [exact Hext5|apply (xd_g _ _ _ _ X6)]).
      assert (Hlc5 : glive g5 curObj) by (apply glive_append; apply (ge_live _ _ Hext3); exact Hl).
      assert (Hkc6 : kids g6 curObj = kids g curObj ++ [p]).
      { destruct (fr_kids _ _ _ _ _ _ _ G3 curObj Hlc5) as (_ & Hex); [intros (F & _); contradiction|].
        rewrite Hex; [exact Hkc5|]. intros E. apply Hpc. exact E. }
      wbi tbls I6. eapply wp_weaken; [apply (strict_close curObj p res s g s6 g6 HR HTM Hl Hnnp H6)|auto|intros u s7 W I7; exact W].
      * exact (ExtD_trans _ _ _ _ _ _ (at_ExtD _ _ _ _ _ _ A5 Hext5) X6).
      * eapply keep_trans; [apply (fr_keep _ _ _ _ _ _ _ F5)|apply (fr_keep _ _ _ _ _ _ _ G3)| |].
        -- intros y Hy. apply glive_append. apply (ge_live _ _ Hext3). exact Hy.
        -- intros i Hi E. subst i. contradiction.
      * exact Hfresh3.
      * exact Hkc6.
      * intros y Hy Hne.
        assert (Hy5 : glive g5 y) by (apply glive_append; apply (ge_live _ _ Hext3); exact Hy).
        destruct (fr_kids _ _ _ _ _ _ _ G3 y Hy5) as (_ & Hex); [intros (F & _); contradiction|].
        rewrite Hex; [|intros E; subst y; contradiction].
        destruct (fr_kids _ _ _ _ _ _ _ F5 y Hy) as (_ & Hex5); [intros []|]. apply Hex5. intros E. apply Hne. symmetry. exact E.
      * lia.
      * exact G6.
      * intros Hr. destruct (G7 Hr) as (K1 & K2 & K3). split; [lia|]. split; [exact K2|].
        rewrite K3. destruct A5 as (_ & _ & _ & _ & A55 & _). exact A55.
  - (* a name *)
    pose proof (Hnok eq_refl) as Enop. clear Hok Hnok.
    destruct (FI_live_get _ _ _ H1 Hl) as (co & Hco & Hlco).
    wbi tbls I1. apply wp_rdf. exists co. split; [exact Hco|]. intros _. rewrite (R_index _ _ (fi_R _ _ H1) _ _ Hco).
    wbi tbls I1. apply wp_scopeEnter. intros I2.
    set (s2 := with_scopeStack s1 (curObj :: p_scopeStack s1)) in *.
    assert (Est2 : p_scopeStack s2 = curObj :: p_scopeStack s) by reflexivity.
    assert (H2 : FD s2 g).
    { apply FI_with_scope; [exact H1|]. constructor; [exact Hl|]. apply (fi_scopes _ _ H1). }
    assert (EP2 : Psi s2 = Psi s) by reflexivity.
    wbi tbls I2. eapply wp_weaken; [apply (IHn s2 g curObj (p_scopeStack s) H2 I2 H0 Est2)| |].
    + unfold roomD in *. lia.
    + eapply TM_tree_eq; [exact HTM|reflexivity].
    + exact Hnnp.
    + auto.
    + intros res s3 (g3 & H3 & X3 & G3 & G4 & G5 & G6) I3.
      destruct (xd_scopes _ _ _ _ X3) as (extra & Es3). rewrite Est2 in Es3.
      destruct (stack_after_call curObj (p_scopeStack s) extra _ Es3) as (x3 & st3 & Es3' & e2 & Est3 & He2').
      assert (He2 : res = ROk -> e2 = []) by (intros Er; apply He2'; destruct (G6 Er) as (_ & _ & E & _); rewrite E; exact Est2).
      wbi tbls I3. eapply wp_scopeExit; [exact Es3'|]. intros I4.
      set (s4 := with_scopeStack s3 st3) in *.
      assert (H4 : FD s4 g3).
      { apply FI_with_scope; [exact H3|]. pose proof (fi_scopes _ _ H3) as Fs. rewrite Es3' in Fs. inversion Fs; auto. }
      assert (EP4 : Psi s4 = Psi s3) by reflexivity.
      assert (Hext3 : gext g g3) by (apply (xd_g _ _ _ _ X3)).
      assert (HX4 : forall s', p_scopeStack s' = p_scopeStack s4 ->
                r_offset (p_r s') = r_offset (p_r s4) -> r_len (p_r s') = r_len (p_r s4) -> forall g', gext g g' -> ExtD s g s' g').
      { intros s' E2 E3 E4 g' Hg'. constructor; [exact Hg'| | |].
        - rewrite E4. change (r_len (p_r s4)) with (r_len (p_r s3)). rewrite (xd_len _ _ _ _ X3). reflexivity.
        - rewrite E3. change (r_offset (p_r s4)) with (r_offset (p_r s3)). pose proof (xd_off _ _ _ _ X3) as O. exact O.
        - rewrite E2. exists e2. unfold s4. pcbn. exact Est3. }
      destruct (pres_eqb res ROk) eqn:Er.
      * assert (res = ROk) by (destruct res; try discriminate; reflexivity). subst res.
        destruct (G6 eq_refl) as (K1 & K2 & K3 & (x & Hkx & Hfx)).
        assert (Hlc3 : glive g3 curObj) by (apply (ge_live _ _ Hext3); exact Hl).
        destruct (FI_live_get _ _ _ H4 Hlc3) as (co4 & Hco4 & Hlco4).
        destruct (R_kids _ _ (fi_R _ _ H4) _ _ Hco4 Hlco4) as (_ & Hlast & _).
        assert (Hlastx : o_last co4 = x) by (rewrite Hlast, Hkx; apply last_last).
        assert (Hlx3 : glive g3 x).
        { apply ((R_gwf _ _ (fi_R _ _ H3)) curObj x). rewrite Hkx. apply in_or_app. right. left. reflexivity. }
        apply wp_bind.
        wbi tbls I4. apply wp_rdf. exists co4. split; [exact Hco4|]. intros _. rewrite Hlastx.
        wbi tbls I4. apply wp_get. intros _. rewrite (FI_ObjectAt _ _ _ H4 Hlx3).
        wbi tbls I4. eapply wp_weaken; [apply (strict_close curObj x ROk s g s4 g3 HR HTM Hl Hnnp H4)|auto|intros u s5 W I5; apply wp_ret; exact W].
        -- apply (HX4 s4); [reflexivity|reflexivity|reflexivity|exact Hext3].
        -- apply keep_gets with (s1 := s3); [|intros i _; reflexivity].
           eapply keep_trans; [apply keep_refl|apply (fr_keep _ _ _ _ _ _ _ G3)|auto|auto].
        -- exact Hfx.
        -- exact Hkx.
        -- intros y Hy Hne. destruct (fr_kids _ _ _ _ _ _ _ G3 y Hy) as (_ & Hex); [intros []|]. apply Hex. intros E. apply Hne. symmetry. exact E.
        -- lia.
        -- discriminate.
        -- intros _. split; [lia|]. split; [eapply TM_tree_eq; [exact K2|reflexivity]|].
           unfold s4. pcbn. rewrite Est3, (He2 eq_refl). reflexivity.
      * (* the name was not resolved *)
        apply wp_bind. apply wp_ret.
        apply (strict_tail None res s4 g3); [exact H4|].
        intros s6 H6 E61 E62 E63 E64.
        assert (EP6 : Psi s6 = Psi s3) by (apply Psi_eq; [rewrite E61|rewrite E63|rewrite E64]; reflexivity).
        exists g3. split; [exact H6|].
        split; [apply (HX4 s6); [rewrite E62; reflexivity|rewrite E63; reflexivity|rewrite E64; reflexivity|exact Hext3]|].
        split.
        { apply (Fr_tree_eq NoP (eq curObj) NoP s g s3 g3 s6); [|rewrite E61; reflexivity].
          eapply Fr_trans; [apply (Fr_tree_eq NoP (eq curObj) NoP s g s g s2); [apply Fr_refl|reflexivity]|exact G3|auto|auto|auto|auto]. }
        split; [exact I|]. split; [lia|]. split; [exact G5|].
        intros Eok. subst res. discriminate.
Qed.
End StepS.
