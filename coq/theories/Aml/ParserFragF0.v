(** C11 (fragment proofs): a [Name(SEG, integer constant)] declaration [decl] with its encoding and its three pool objects
    (Name, name path, constant); parseObjectList and the first pass of ParseAML unfolded one step. *)
From Coq Require Import NArith ZArith Arith List Bool Lia.
From Coq Require Import ZifyBool ZifyN ZifyNat.
From FF Require Import Lib.Word Gen.Consts_device_acpi_aml Gen.Consts_aml_tree Aml.Stream Aml.Lex Aml.LexProofs
  Aml.Tree Aml.TreeSpec Aml.TreeProofs Aml.TreeProofsOps Aml.TreeProofsFind Aml.Parser Aml.Grammar Aml.LexRoundtrip
  Aml.ParserTotalTree Aml.ParserTotalTree2 Aml.ParserTotalLex Aml.ParserTotalTable Aml.ParserTotalBase
  Aml.ParserFragBase Aml.ParserFragFirst.
Import ListNotations.
Local Open Scope N_scope.

Record decl : Type := mkDecl { d_seg : N; d_op : N; d_v : N }.

Definition enc_const (d : decl) : list N := enc_op (d_op d) ++ Grammar.le_bytes (const_bytes (d_op d)) (d_v d).
Definition enc_decl (d : decl) : list N := OP_NAME :: seg_bytes (d_seg d) ++ enc_const d.

Definition decl_okb (d : decl) : bool :=
  lead_okb (seg_lead (d_seg d)) && is_constb (d_op d) && (d_v d <? 2 ^ (N.of_nat (const_bytes (d_op d)) * 8)).

Fixpoint g_decls (g : ghost) (sc : N) (ds : list decl) : ghost :=
  match ds with [] => g | _ :: r => g_decls (g_head (g_name g sc) sc) sc r end.

Definition decl_pays (h tbl off : N) (d : decl) : list pay :=
  [mkPay aml_pOpName 3 h name_zero off 0 None;
   mkPay aml_pOpIntNamePath 118 h name_zero (off + 1) 0 (Some (VBytes tbl (mkSlice (Some (off + 1)) 4)));
   mkPay (d_op d) (const_info (d_op d)) h name_zero (off + 5) 0 (const_val (d_op d) (d_v d))].

Fixpoint pl_decls (h tbl off : N) (ds : list decl) : list pay :=
  match ds with [] => [] | d :: r => decl_pays h tbl off d ++ pl_decls h tbl (off + lenN (enc_decl d)) r end.

Lemma lenN_le_bytes k v : lenN (Grammar.le_bytes k v) = N.of_nat k.
Proof. revert v. induction k as [|k IH]; intros v; [reflexivity|]. cbn [Grammar.le_bytes]. rewrite lenN_cons, IH. lia. Qed.

Lemma lenN_enc_const d : lenN (enc_const d) = lenN (enc_op (d_op d)) + N.of_nat (const_bytes (d_op d)).
Proof. unfold enc_const. rewrite lenN_app, lenN_le_bytes. reflexivity. Qed.

Lemma length_pl_decls h tbl ds : forall off, length (pl_decls h tbl off ds) = (3 * length ds)%nat.
Proof. induction ds as [|d ds IH]; intros off; [reflexivity|]. cbn [pl_decls]. rewrite app_length, IH. cbn [decl_pays length]. lia. Qed.

Lemma objectList_inner_S f : objectList_inner (S f) =
  (mlet e <~ eofM ;; if e then ret true else
   mlet res <~ parseNextObject f ;; if pres_eqb res ROk then objectList_inner f else ret false).
Proof. reflexivity. Qed.

(** ---- the whole first pass ---- *)
Lemma init_state_eq tree earlier h data : aml_sizeofSDTHeader <= lenN data ->
  init_state tree earlier h data =
  mkP (mkReader data (lenN data) aml_sizeofSDTHeader (lenN data)) tree [] [lenN data] (lenN data) 0 0 0 false h (earlier ++ [data]).
Proof.
  intros Hn. unfold init_state, init_reader. fold (lenN data).
  assert (E1 : setPkgEnd (mkReader data (lenN data) 0 0) (lenN data) = (mkReader data (lenN data) 0 (lenN data), true)).
  { unfold setPkgEnd. cbn [r_len]. rewrite N.ltb_irrefl. reflexivity. }
  rewrite E1. cbn [fst]. unfold setOffset. cbn [r_len].
  assert (E2 : lenN data <? aml_sizeofSDTHeader = false) by (apply N.ltb_ge; exact Hn). rewrite E2.
  unfold set_offset_raw. cbn [r_data r_len r_pkgEnd r_offset].
  unfold setPkgEnd. cbn [r_len]. rewrite N.ltb_irrefl. reflexivity.
Qed.

Lemma parseObjectList_S f : parseObjectList (S f) =
  (mlet st <~ get p_scopeStack ;;
   match st with
   | [] => ret ROk
   | _ => mlet ok <~ objectList_inner f ;;
          if negb ok then ret RFailed else
          mlet n1 <~ get (fun s => length (p_pkgEndStack s)) ;;
          mlet n2 <~ get (fun s => length (p_scopeStack s)) ;;
          (if Nat.eqb n1 n2 then scopeExit else ret tt) ;;;
          popPkgEnd ;;;
          parseObjectList f
   end).
Proof. reflexivity. Qed.

Definition first_pass (fuel : nat) : M pres := scopeEnter 0 ;;; parseObjectList fuel.

Definition after_first (tree : T) (earlier : list (list N)) (h : N) (data : list N) : pstate :=
  mkP (mkReader data (lenN data) (lenN data) (lenN data)) tree [] [] (lenN data) 0 0 0 false h (earlier ++ [data]).

