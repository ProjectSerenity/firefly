(** Frames.  What a parser function leaves untouched: the payload of the objects that were live before,
    and their child lists (which only grow at the end).  Obtained for the leaf functions from partial-correctness lemmas
    ("only these objects are written") and the fact that the forest is determined by the pool.
    At the end: the leaf functions create no Method object ([nmeth]), an instance of the step conditions of ParserTotalRuns.v. *)
From Coq Require Import NArith Arith List Bool Lia.
From Coq Require Import ZifyBool ZifyN ZifyNat.
From FF Require Import Lib.Word Gen.Consts_device_acpi_aml Gen.Consts_aml_tree Aml.Stream Aml.Lex Aml.LexProofs
  Aml.Tree Aml.TreeSpec Aml.TreeProofs Aml.TreeProofsOps Aml.Parser
  Aml.ParserTotalTree Aml.ParserTotalLex Aml.ParserTotalTable Aml.ParserTotalRuns Aml.ParserTotalBase Aml.ParserTotalLeaf.
Import ListNotations.
Local Open Scope N_scope.

(** ---- the forest is determined by the pool ---- *)
Lemma chain_same {V} (t t' : ObjectTree V) y :
  (forall i o, tget t i = Some o -> o_opcode o <> opFreed -> tget t' i = Some o) ->
  (forall i o, tget t' i = Some o -> i <> InvalidIndex) ->
  forall l l' prev, chain t y prev l InvalidIndex -> chain t' y prev l' InvalidIndex ->
    hd InvalidIndex l = hd InvalidIndex l' -> l = l'.
Proof.
  intros Hsame Hninv. induction l as [|c rest IH]; intros l' prev Hc Hc' Hhd.
  - destruct l' as [|c' rest']; [reflexivity|]. cbn [hd] in Hhd. exfalso.
    destruct Hc' as ((o & Ho & _) & _). apply (Hninv _ _ Ho). symmetry. exact Hhd.
  - destruct Hc as ((o & Ho & Hlo & Hp & Hpv & Hnx) & Hrest).
    destruct l' as [|c' rest'].
    { cbn [hd] in Hhd. exfalso. pose proof (Hsame _ _ Ho Hlo) as Ho'. apply (Hninv _ _ Ho'). exact Hhd. }
    cbn [hd] in Hhd. subst c'.
    destruct Hc' as ((o' & Ho' & _ & _ & _ & Hnx') & Hrest').
    pose proof (Hsame _ _ Ho Hlo) as Ho2. assert (o' = o) by congruence. subst o'.
    f_equal. apply (IH rest' c Hrest Hrest'). congruence.
Qed.

Lemma kids_same {V} (t t' : ObjectTree V) g g' :
  R t g -> R t' g' ->
  (forall i o, tget t i = Some o -> o_opcode o <> opFreed -> tget t' i = Some o) ->
  forall y, glive g y -> kids g' y = kids g y.
Proof.
  intros HR HR' Hsame y Hl. apply (R_live_glive _ _ HR) in Hl. destruct Hl as (o & Ho & Hlo).
  pose proof (Hsame _ _ Ho Hlo) as Ho'.
  destruct (R_kids _ _ HR _ _ Ho Hlo) as (Hf & _ & Hc & _).
  destruct (R_kids _ _ HR' _ _ Ho' Hlo) as (Hf' & _ & Hc' & _).
  symmetry. eapply (chain_same t t' y Hsame); [|exact Hc|exact Hc'|congruence].
  intros i oi Hi. eapply (R_pos_not_Inv _ _ HR'); eauto.
Qed.

(** ---- frames ---- *)
(** all payload fields but the value *)
Definition pnv {V} (o o' : Object V) : Prop :=
  o_opcode o' = o_opcode o /\ o_infoIndex o' = o_infoIndex o /\ o_tableHandle o' = o_tableHandle o /\
  o_name o' = o_name o /\ o_index o' = o_index o /\ o_amlOffset o' = o_amlOffset o /\ o_pkgEnd o' = o_pkgEnd o.

Lemma pnv_refl {V} (o : Object V) : pnv o o.
Proof. unfold pnv. tauto. Qed.
Lemma pnv_trans {V} (a b c : Object V) : pnv a b -> pnv b c -> pnv a c.
Proof. unfold pnv. intuition congruence. Qed.
Lemma pay_eq_pnv {V} (o o' : Object V) : pay_eq o o' -> pnv o o' /\ o_value o' = o_value o.
Proof. unfold pay_eq, pnv. tauto. Qed.

(** the objects that were live keep their payload; those in [P] may get another value *)
Definition keep (P : N -> Prop) (s : pstate) (g : ghost) (s' : pstate) : Prop :=
  forall i o, glive g i -> tget (p_tree s) i = Some o ->
    exists o', tget (p_tree s') i = Some o' /\ pnv o o' /\ (~ P i -> o_value o' = o_value o).

(** child lists: nothing is said about the nodes in [E]; the lists of the others only grow at the end, those outside [X] not at all *)
Definition Fk (X E : N -> Prop) (g g' : ghost) : Prop :=
  forall y, glive g y -> ~ E y -> (exists extra, kids g' y = kids g y ++ extra) /\ (~ X y -> kids g' y = kids g y).

Record Fr (P X E : N -> Prop) (s : pstate) (g : ghost) (s' : pstate) (g' : ghost) : Prop := mkFr {
  fr_keep : keep P s g s';
  fr_kids : Fk X E g g'
}.

(** the empty index set of a frame ([NoX] of ParserTotalDefer.v and of ParserTotalMerge.v is the same set) *)
Definition NoP : N -> Prop := fun _ => False.

Lemma keep_refl P s g : keep P s g s.
Proof. intros i o _ Ho. exists o. split; auto. split; [apply pnv_refl|auto]. Qed.

Lemma keep_trans (P P1 : N -> Prop) s g s1 g1 s2 :
  keep P s g s1 -> keep P1 s1 g1 s2 -> (forall x, glive g x -> glive g1 x) -> (forall i, glive g i -> P1 i -> P i) -> keep P s g s2.
Proof.
  intros K1 K2 Hl Hp i o Hi Ho. destruct (K1 i o Hi Ho) as (o1 & Ho1 & E1 & V1).
  destruct (K2 i o1 (Hl _ Hi) Ho1) as (o2 & Ho2 & E2 & V2).
  exists o2. split; auto. split; [eapply pnv_trans; eauto|]. intros Hn. rewrite V2; [apply V1; exact Hn|]. intros F. apply Hn. apply Hp; auto.
Qed.

Lemma keep_gets P s g s1 s2 : keep P s g s1 -> (forall i, glive g i -> tget (p_tree s2) i = tget (p_tree s1) i) -> keep P s g s2.
Proof. intros K E i o Hi Ho. rewrite (E i Hi). apply (K i o Hi Ho). Qed.

Lemma keep_pframe P s g s1 (t2 : T) : keep P s g s1 -> pframe (p_tree s1) t2 -> keep P s g (with_tree s1 t2).
Proof.
  intros K Hpf i o Hi Ho. destruct (K i o Hi Ho) as (o1 & Ho1 & E1 & V1).
  destruct (proj2 Hpf _ _ Ho1) as (o2 & Ho2 & E2). destruct (pay_eq_pnv _ _ E2) as (E2' & V2).
  exists o2. split; [exact Ho2|]. split; [eapply pnv_trans; eauto|]. intros Hn. rewrite V2. apply V1. exact Hn.
Qed.

Lemma Fk_refl X E g : Fk X E g g.
Proof. intros y _ _. split; [exists []; rewrite app_nil_r; reflexivity|reflexivity]. Qed.

Lemma Fk_trans (X X1 E E1 : N -> Prop) g g1 g2 :
  Fk X E g g1 -> Fk X1 E1 g1 g2 -> (forall x, glive g x -> glive g1 x) ->
  (forall y, glive g y -> X1 y -> X y) -> (forall y, glive g y -> E1 y -> E y) -> Fk X E g g2.
Proof.
  intros F1 F2 Hl Hx He y Hy HE. destruct (F1 y Hy HE) as (A1 & B1).
  destruct (F2 y (Hl _ Hy) (fun F => HE (He _ Hy F))) as (A2 & B2). split.
  - destruct A1 as (e1 & E1'). destruct A2 as (e2 & E2'). exists (e1 ++ e2). rewrite E2', E1', app_assoc. reflexivity.
  - intros HX. rewrite B2; [apply B1; exact HX|]. intros H1. apply HX. apply Hx; auto.
Qed.

Lemma Fr_refl P X E s g : Fr P X E s g s g.
Proof. constructor; [apply keep_refl|apply Fk_refl]. Qed.

Lemma Fr_trans (P P1 X X1 E E1 : N -> Prop) s g s1 g1 s2 g2 :
  Fr P X E s g s1 g1 -> Fr P1 X1 E1 s1 g1 s2 g2 -> (forall x, glive g x -> glive g1 x) ->
  (forall i, glive g i -> P1 i -> P i) -> (forall y, glive g y -> X1 y -> X y) -> (forall y, glive g y -> E1 y -> E y) ->
  Fr P X E s g s2 g2.
Proof. intros [K1 G1] [K2 G2] Hl Hp Hx He. constructor; [eapply keep_trans; eauto|eapply Fk_trans; eauto]. Qed.

Lemma Fr_weaken (P P' X X' E E' : N -> Prop) s g s' g' :
  (forall i, glive g i -> P i -> P' i) -> (forall y, glive g y -> X y -> X' y) -> (forall y, glive g y -> E y -> E' y) ->
  Fr P X E s g s' g' -> Fr P' X' E' s g s' g'.
Proof.
  intros Hp Hx He [K G]. constructor.
  - intros i o Hi Ho. destruct (K i o Hi Ho) as (o' & Ho' & E1 & V1). exists o'. split; [exact Ho'|]. split; [exact E1|].
    intros Hn. apply V1. intros F. apply Hn. apply Hp; auto.
  - intros y Hy HE. destruct (G y Hy (fun F => HE (He _ Hy F))) as (A & B). split; [exact A|].
    intros HX'. apply B. intros H1. apply HX'. apply Hx; auto.
Qed.

(** the objects that were live are exactly as they were: the frame of a function that only creates and fills new objects *)
Lemma Fr_same s g s' g' :
  R (p_tree s) g -> R (p_tree s') g' ->
  (forall i o, tget (p_tree s) i = Some o -> o_opcode o <> opFreed -> tget (p_tree s') i = Some o) ->
  Fr NoP NoP NoP s g s' g'.
Proof.
  intros HR HR' Hsame. constructor.
  - intros i o Hi Ho. exists o. split; [|split; [apply pnv_refl|auto]].
    apply (R_live_glive _ _ HR) in Hi. destruct Hi as (o1 & Ho1 & Hl1). assert (o1 = o) by congruence. subst. auto.
  - intros y Hy _. assert (E : kids g' y = kids g y) by (eapply kids_same; eauto).
    split; [exists []; rewrite app_nil_r; exact E|intros _; exact E].
Qed.

(** ---- partial correctness: which objects a function writes ---- *)
Definition only {A} (W : N -> Prop) (m : M A) : Prop :=
  forall s a s', m s = Ok (a, s') -> forall i, ~ W i -> tget (p_tree s') i = tget (p_tree s) i.

Lemma only_bind {A B} W (m : M A) (f : A -> M B) : only W m -> (forall a, only W (f a)) -> only W (bindM m f).
Proof. apply (runs_bind (fun s s' => forall i, ~ W i -> tget (p_tree s') i = tget (p_tree s) i)). intros s1 s2 s3 A1 A2 i Hi. rewrite (A2 i Hi). exact (A1 i Hi). Qed.

Lemma only_if {A} W (b : bool) (m1 m2 : M A) : only W m1 -> only W m2 -> only W (if b then m1 else m2).
Proof. destruct b; auto. Qed.

Lemma only_inert {A} W (m : M A) : runs inert m -> only W m.
Proof. intros Hm s a s' H i _. rewrite (proj1 (Hm _ _ _ H)). reflexivity. Qed.

Lemma only_wrf (W : N -> Prop) p f : W p -> only W (wrf p f).
Proof.
  intros Hp s a s' H i Hi. unfold wrf, tu in H. destruct (wr (p_tree s) p f) as [t'| |] eqn:E; try discriminate.
  inversion H; subst. destruct (wr_inv _ _ _ _ E) as (-> & _). cbn [p_tree with_tree]. rewrite get_tset.
  destruct (N.eqb_spec i p) as [->|_]; [contradiction|reflexivity].
Qed.

(** a total-correctness fact and a partial-correctness fact about the same run *)
Lemma wp_and_pc {A} P (m : M A) s (Q1 Q2 : A -> pstate -> Prop) :
  wp P m s Q1 -> (forall a s', m s = Ok (a, s') -> Q2 a s') -> wp P m s (fun a s' => Q1 a s' /\ Q2 a s').
Proof. unfold wp. intros H1 H2. destruct (m s) as [[a s']| |] eqn:E; auto. Qed.

Ltac only_tac :=
  repeat lazymatch goal with
  | |- only _ (bindM _ _) => apply only_bind; [|intros ?]
  | |- only _ (match ?x with _ => _ end) => first [apply only_if | destruct x]
  | |- only _ (wrf _ _) => apply only_wrf; reflexivity
  | |- _ => apply only_inert; inert_prim
  end.

(** ---- parseByteList writes its object only ---- *)
Lemma parseByteList_only obj dataLen : only (fun i => i = obj) (parseByteList obj dataLen).
Proof.
  unfold parseByteList. parser_unf. only_tac.
Qed.

Lemma parseByteList_spec2 {md} P obj dataLen s g : FIm md s g -> glive g obj ->
  wp P (parseByteList obj dataLen) s (fun res s' => FIm md s' g /\ rstep s s' /\
     forall i, i <> obj -> tget (p_tree s') i = tget (p_tree s) i).
Proof.
  intros H Hl. eapply wp_weaken; [apply (wp_and_pc P _ s _ (fun _ s' => forall i, i <> obj -> tget (p_tree s') i = tget (p_tree s) i)
     (parseByteList_spec P obj dataLen s g H Hl))|auto|].
  - intros a s' E i Hi. apply (parseByteList_only obj dataLen s a s' E i). exact Hi.
  - intros a s' ((A & B) & C). auto.
Qed.

(** ---- parseSimpleArg writes the object it creates only ---- *)
Lemma bindM_ok {A B} (m : M A) (f : A -> M B) s b s' :
  bindM m f s = Ok (b, s') -> exists a s1, m s = Ok (a, s1) /\ f a s1 = Ok (b, s').
Proof. unfold bindM. destruct (m s) as [[a s1]| |]; try discriminate. eauto. Qed.

Lemma simple_num_only obj op bytes : only (fun i => i = obj) (simple_num obj op bytes).
Proof. unfold simple_num. only_tac. Qed.

Lemma simple_str_only obj tbl op f : only (fun i => i = obj) (simple_str obj tbl op f).
Proof. unfold simple_str. only_tac. Qed.

(** the opcode-table row of the object a number argument ends up with *)
Lemma simple_num_info obj op bytes s x s' :
  simple_num obj op bytes s = Ok (x, s') ->
  exists po idx, tget (p_tree s') obj = Some po /\ opcodeTableIndex op true = Some idx /\ o_infoIndex po = idx.
Proof.
  unfold simple_num. intros H.
  apply bindM_ok in H. destruct H as (u1 & s1 & _ & H).
  apply bindM_ok in H. destruct H as ([v ok] & s2 & _ & H).
  apply bindM_ok in H. destruct H as (u3 & s3 & _ & H).
  apply bindM_ok in H. destruct H as (idx & s4 & E4 & H).
  unfold tableIndex in E4. destruct (opcodeTableIndex op true) as [i0|] eqn:Ei; [|discriminate]. inversion E4; subst idx s4. clear E4.
  apply bindM_ok in H. destruct H as (u5 & s5 & E5 & H). inversion H; subst x s'. clear H.
  unfold wrf, tu in E5. destruct (wr (p_tree s3) obj (set_infoIndex i0)) as [t5| |] eqn:Ew; try discriminate.
  inversion E5; subst s5. destruct (wr_inv _ _ _ _ Ew) as (-> & o & Ho).
  exists (set_infoIndex i0 o), i0. cbn [p_tree with_tree]. rewrite get_tset, N.eqb_refl, Ho. auto.
Qed.

Lemma simple_str_info obj tbl op f s x s' :
  simple_str obj tbl op f s = Ok (x, s') ->
  exists po idx, tget (p_tree s') obj = Some po /\ opcodeTableIndex op true = Some idx /\ o_infoIndex po = idx.
Proof.
  unfold simple_str. intros H.
  apply bindM_ok in H. destruct H as (u1 & s1 & _ & H).
  apply bindM_ok in H. destruct H as ([v ok] & s2 & _ & H).
  apply bindM_ok in H. destruct H as (u3 & s3 & _ & H).
  apply bindM_ok in H. destruct H as (idx & s4 & E4 & H).
  unfold tableIndex in E4. destruct (opcodeTableIndex op true) as [i0|] eqn:Ei; [|discriminate]. inversion E4; subst idx s4. clear E4.
  apply bindM_ok in H. destruct H as (u5 & s5 & E5 & H). inversion H; subst x s'. clear H.
  unfold wrf, tu in E5. destruct (wr (p_tree s3) obj (set_infoIndex i0)) as [t5| |] eqn:Ew; try discriminate.
  inversion E5; subst s5. destruct (wr_inv _ _ _ _ Ew) as (-> & o & Ho).
  exists (set_infoIndex i0 o), i0. cbn [p_tree with_tree]. rewrite get_tset, N.eqb_refl, Ho. auto.
Qed.

Lemma simple_num_res obj op bytes s a r s' : simple_num obj op bytes s = Ok ((a, r), s') -> a = Some obj /\ r <> RShort.
Proof.
  unfold simple_num. intros E.
  apply bindM_ok in E. destruct E as (? & ? & _ & E).
  apply bindM_ok in E. destruct E as ([v ok] & ? & _ & E).
  apply bindM_ok in E. destruct E as (? & ? & _ & E).
  apply bindM_ok in E. destruct E as (? & ? & _ & E).
  apply bindM_ok in E. destruct E as (? & ? & _ & E).
  inversion E; subst. split; [reflexivity|destruct ok; discriminate].
Qed.

Lemma simple_str_res obj tbl op f s a r s' : simple_str obj tbl op f s = Ok ((a, r), s') -> a = Some obj /\ r <> RShort.
Proof.
  unfold simple_str. intros E.
  apply bindM_ok in E. destruct E as (? & ? & _ & E).
  apply bindM_ok in E. destruct E as ([v ok] & ? & _ & E).
  apply bindM_ok in E. destruct E as (? & ? & _ & E).
  apply bindM_ok in E. destruct E as (? & ? & _ & E).
  apply bindM_ok in E. destruct E as (? & ? & _ & E).
  inversion E; subst. split; [reflexivity|destruct ok; discriminate].
Qed.

Lemma parseSimpleArg_pc argTy s a r s' :
  parseSimpleArg argTy s = Ok ((a, r), s') ->
  exists t1 p, newObject (p_tree s) 0 (p_handle s) = Ok (t1, p) /\
    (forall i, i <> p -> tget (p_tree s') i = tget t1 i) /\
    (a = Some p \/ a = None) /\ r <> RShort /\
    (argTy = aml_pArgTypeByteData ->
       exists po idx, tget (p_tree s') p = Some po /\ opcodeTableIndex aml_pOpBytePrefix true = Some idx /\ o_infoIndex po = idx) /\
    (argTy = aml_pArgTypeNameString -> a = Some p ->
       exists po idx, tget (p_tree s') p = Some po /\ opcodeTableIndex aml_pOpIntNamePath true = Some idx /\ o_infoIndex po = idx).
Proof.
  unfold parseSimpleArg. intros H.
  apply bindM_ok in H. destruct H as (p & s1 & E1 & H).
  unfold newObj in E1. destruct (newObject (p_tree s) 0 (p_handle s)) as [[t1 p1]| |] eqn:En; try discriminate.
  inversion E1; subst p1 s1. clear E1. exists t1, p. split; [reflexivity|].
  apply bindM_ok in H. destruct H as (off & s2 & E2 & H). inversion E2; subst off s2. clear E2.
  apply bindM_ok in H. destruct H as (u3 & s3 & E3 & H).
  assert (F3 : forall i, i <> p -> tget (p_tree s3) i = tget t1 i).
  { intros i Hi. apply (only_wrf (fun i => i = p) p _ eq_refl _ _ _ E3 i Hi). }
  apply bindM_ok in H. destruct H as (tbl & s4 & E4 & H). inversion E4; subst tbl s4. clear E4.
  cbv zeta in H.
  assert (Hcase : (exists op bytes, simple_num p op bytes s3 = Ok ((a, r), s') /\ (argTy = aml_pArgTypeByteData -> op = aml_pOpBytePrefix) /\ argTy <> aml_pArgTypeNameString) \/
                  (exists tbl op f, simple_str p tbl op f s3 = Ok ((a, r), s') /\ argTy <> aml_pArgTypeByteData /\
                                    (argTy = aml_pArgTypeNameString -> op = aml_pOpIntNamePath)) \/
                  (a = None /\ r = RFailed /\ s' = s3 /\ argTy <> aml_pArgTypeByteData)).
  { destruct (N.eqb_spec argTy aml_pArgTypeByteData) as [Eb|Eb]; [left; exists aml_pOpBytePrefix, 1; split; [exact H|split; [auto|rewrite Eb; discriminate]]|].
    destruct (N.eqb_spec argTy aml_pArgTypeWordData) as [Ew|Ew]; [left; exists aml_pOpWordPrefix, 2; split; [exact H|split; [intros; contradiction|rewrite Ew; discriminate]]|].
    destruct (N.eqb_spec argTy aml_pArgTypeDwordData) as [Ed|Ed]; [left; exists aml_pOpDwordPrefix, 4; split; [exact H|split; [intros; contradiction|rewrite Ed; discriminate]]|].
    destruct (N.eqb_spec argTy aml_pArgTypeQwordData) as [Eq|Eq]; [left; exists aml_pOpQwordPrefix, 8; split; [exact H|split; [intros; contradiction|rewrite Eq; discriminate]]|].
    destruct (N.eqb_spec argTy aml_pArgTypeString) as [Es|Es].
    { right; left; eexists _, _, _; split; [exact H|split; [exact Eb|]]. intros En0. rewrite Es in En0. discriminate. }
    destruct (N.eqb_spec argTy aml_pArgTypeNameString) as [Ens|Ens]; [right; left; eexists _, _, _; split; [exact H|split; [exact Eb|reflexivity]]|].
    right. right. inversion H; subst. auto. }
  destruct Hcase as [(op & bytes & E & Hop & Hnn)|[(tbl & op & f & E & Hnb & Hopn)|(-> & -> & -> & Hnb)]].
  - split; [|split].
    + intros i Hi. rewrite (simple_num_only p op bytes s3 _ s' E i Hi). apply F3. exact Hi.
    + left. exact (proj1 (simple_num_res _ _ _ _ _ _ _ E)).
    + split; [exact (proj2 (simple_num_res _ _ _ _ _ _ _ E))|].
      split; [intros Eb; rewrite (Hop Eb) in E; apply (simple_num_info _ _ _ _ _ _ E)|].
      intros En0 _. contradiction.
  - split; [|split].
    + intros i Hi. rewrite (simple_str_only p tbl op f s3 _ s' E i Hi). apply F3. exact Hi.
    + left. exact (proj1 (simple_str_res _ _ _ _ _ _ _ _ E)).
    + split; [exact (proj2 (simple_str_res _ _ _ _ _ _ _ _ E))|].
      split; [intros Eb; contradiction|]. intros En0 _. rewrite (Hopn En0) in E. apply (simple_str_info _ _ _ _ _ _ _ E).
  - split; [exact F3|]. split; [right; reflexivity|]. split; [discriminate|]. split; [intros Eb; contradiction|]. intros _ Ea. discriminate.
Qed.

(** the slot a new object gets was not live *)
Lemma newObject_fresh (t t1 : T) g opc th p : R t g -> newok opc -> N.of_nat (length (t_pool t)) + 1 < InvalidIndex ->
  newObject t opc th = Ok (t1, p) -> ~ glive g p.
Proof.
  intros HR (Hnf & Hmaps & _) Hroom E.
  destruct (newObject_R t g opc th HR) as (t' & p' & E' & _ & _ & Hp).
  { split; auto. split; auto. intros _. rewrite (R_len _ _ HR). lia. }
  rewrite E in E'. injection E' as Et Ep.
  destruct (new_slot_fresh t g opc th HR) as (F1 & _). unfold new_slot in F1. rewrite <- Hp, <- Ep in F1. exact F1.
Qed.

Lemma parseSimpleArg_spec2 {md} P argTy s g : FIm md s g -> lp s + 1 < InvalidIndex ->
  specm md P (parseSimpleArg argTy) s g (fun '(a, res) s' g' =>
     lp s' <= lp s + 1 /\ p_scopeStack s' = p_scopeStack s /\
     (res = ROk -> r_offset (p_r s) < r_offset (p_r s')) /\
     match a with
     | Some obj => ~ glive g obj /\ glive g' obj /\ groot g' obj /\
                   (argTy = aml_pArgTypeByteData ->
                      exists po v idx, tget (p_tree s') obj = Some po /\ o_value po = Some (VNum v) /\
                                       opcodeTableIndex aml_pOpBytePrefix true = Some idx /\ o_infoIndex po = idx) /\
                   (argTy = aml_pArgTypeNameString ->
                      exists po idx, tget (p_tree s') obj = Some po /\
                                     opcodeTableIndex aml_pOpIntNamePath true = Some idx /\ o_infoIndex po = idx)
     | None => res = RFailed /\ argTy <> aml_pArgTypeByteData
     end /\
     Fr NoP NoP NoP s g s' g' /\ res <> RShort).
Proof.
  intros H Hroom. unfold specm.
  eapply wp_weaken; [apply (wp_and_pc P _ s _ (fun ar s' => parseSimpleArg argTy s = Ok (ar, s')) (parseSimpleArg_spec P argTy s g H Hroom))|auto|].
  - intros a s' E. exact E.
  - intros [a res] s' ((g' & H' & Hext & Q1 & Q2 & Q3 & Q4) & E).
    destruct (parseSimpleArg_pc _ _ _ _ _ E) as (t1 & p & En & Hfr & Ha & Hrs & Hinfo & Hinfo2).
    pose proof (fi_R _ _ H) as HR.
    assert (Hfresh : ~ glive g p).
    { apply (newObject_fresh (p_tree s) t1 g 0 (p_handle s) p HR (newokb_sound 0 eq_refl)); [unfold lp in Hroom; exact Hroom|exact En]. }
    destruct (newObject_shape _ _ _ _ _ En) as (_ & Hfw & _).
    exists g'. split; [exact H'|]. split; [exact Hext|]. split; [exact Q1|]. split; [exact Q2|]. split; [exact Q3|]. split.
    + destruct a as [obj|]; [|exact Q4]. destruct Q4 as (A1 & A2 & A3 & A4). repeat (split; [assumption|]).
      assert (obj = p) by (destruct Ha as [Ea|Ea]; congruence). subst obj. split.
      * intros Eb. destruct (A4 Eb) as (po & v & Hpo & Hv). destruct (Hinfo Eb) as (po' & idx & Hpo' & Hidx & Hii).
        assert (po' = po) by congruence. subst po'. exists po, v, idx. auto.
      * intros Ens. exact (Hinfo2 Ens eq_refl).
    + split; [|exact Hrs]. apply Fr_same; [exact HR|apply (fi_R _ _ H')|].
      intros i o Ho Hlo. assert (Hip : i <> p).
      { intros ->. apply Hfresh. apply (R_live_glive _ _ HR). exists o. auto. }
      rewrite (Hfr i Hip). apply (Hfw i o Hip Ho).
Qed.

(** ---- functions that do not touch the pool ---- *)
Definition notree {A} (m : M A) : Prop := forall s a s', m s = Ok (a, s') -> p_tree s' = p_tree s.

Lemma notree_inert {A} (m : M A) : runs inert m -> notree m.
Proof. apply runs_weaken. intros s s' Q. apply Q. Qed.

Lemma fieldByte_notree : notree fieldByte.
Proof. apply notree_inert. unfold fieldByte. inert_tac. Qed.

Lemma dl_block_notree origOffset pkgLen : notree (dl_block origOffset pkgLen).
Proof. apply notree_inert. unfold dl_block. inert_tac. Qed.

Lemma readName_go_only field cnt : forall i, only (fun x => x = field) (readName_go cnt i field).
Proof. induction cnt as [|cnt IH]; intros i; cbn [readName_go]; only_tac. apply IH. Qed.

(** ---- frame steps ---- *)
Lemma Fr_gets P X E s0 g0 s1 g1 s2 : Fr P X E s0 g0 s1 g1 -> (forall i, glive g0 i -> tget (p_tree s2) i = tget (p_tree s1) i) ->
  Fr P X E s0 g0 s2 g1.
Proof. intros [K G] Eq. constructor; [eapply keep_gets; eauto|exact G]. Qed.

Lemma Fr_tree_eq P X E s0 g0 s1 g1 s2 : Fr P X E s0 g0 s1 g1 -> p_tree s2 = p_tree s1 -> Fr P X E s0 g0 s2 g1.
Proof. intros F Eq. eapply Fr_gets; [exact F|]. intros i _. rewrite Eq. reflexivity. Qed.

Lemma Fr_tset_fresh P X E s0 g0 s1 g1 p f : Fr P X E s0 g0 s1 g1 -> ~ glive g0 p ->
  Fr P X E s0 g0 (with_tree s1 (tset (p_tree s1) p f)) g1.
Proof.
  intros F Hp. eapply Fr_gets; [exact F|]. intros i Hi. cbn [p_tree with_tree]. rewrite get_tset.
  destruct (N.eqb_spec i p) as [->|_]; [contradiction|reflexivity].
Qed.

(** a write of the value of an object that is allowed to change it *)
Lemma Fr_tset_value (P X E : N -> Prop) s0 g0 s1 g1 p v : Fr P X E s0 g0 s1 g1 -> P p ->
  Fr P X E s0 g0 (with_tree s1 (tset (p_tree s1) p (set_value v))) g1.
Proof.
  intros [K G] Hp. constructor; [|exact G]. intros i o Hi Ho. destruct (K i o Hi Ho) as (o1 & Ho1 & E1 & V1).
  cbn [p_tree with_tree]. rewrite get_tset, Ho1. cbn [option_map]. destruct (N.eqb_spec i p) as [->|Hne].
  - exists (set_value v o1). split; [reflexivity|]. split; [exact E1|]. intros Hn. contradiction.
  - exists o1. auto.
Qed.

Lemma Fr_pframe_kids (P X E : N -> Prop) s0 g0 s1 g1 (t2 : T) g2 :
  Fr P X E s0 g0 s1 g1 -> pframe (p_tree s1) t2 ->
  (forall y, glive g0 y -> ~ E y -> (exists extra, kids g2 y = kids g1 y ++ extra) /\ (~ X y -> kids g2 y = kids g1 y)) ->
  Fr P X E s0 g0 (with_tree s1 t2) g2.
Proof.
  intros [K G] Hpf Hk. constructor; [eapply keep_pframe; eauto|].
  intros y Hy HE. destruct (G y Hy HE) as ((e1 & E1) & B1). destruct (Hk y Hy HE) as ((e2 & E2) & B2). split.
  - exists (e1 ++ e2). rewrite E2, E1, app_assoc. reflexivity.
  - intros HX. rewrite (B2 HX). apply B1. exact HX.
Qed.

(** appending [a] to [o]: [o] was not live at the base, or is allowed to grow, or is excluded *)
Lemma Fr_append (P X E : N -> Prop) s0 g0 s1 g1 (t2 : T) g2 o a :
  Fr P X E s0 g0 s1 g1 -> pframe (p_tree s1) t2 ->
  kids g2 o = kids g1 o ++ [a] -> (forall q, q <> o -> kids g2 q = kids g1 q) ->
  (glive g0 o -> X o \/ E o) ->
  Fr P X E s0 g0 (with_tree s1 t2) g2.
Proof.
  intros F Hpf Ko Kq Hx. eapply Fr_pframe_kids; eauto. intros y Hy HE.
  destruct (N.eq_dec y o) as [->|Hne].
  - split; [exists [a]; exact Ko|]. intros HX. exfalso. destruct (Hx Hy); contradiction.
  - rewrite (Kq y Hne). split; [exists []; rewrite app_nil_r; reflexivity|reflexivity].
Qed.

(** any change of the child list of an excluded (or new) node *)
Lemma Fr_kids_E (P X E : N -> Prop) s0 g0 s1 g1 (t2 : T) g2 o :
  Fr P X E s0 g0 s1 g1 -> pframe (p_tree s1) t2 -> (forall q, q <> o -> kids g2 q = kids g1 q) ->
  (glive g0 o -> E o) ->
  Fr P X E s0 g0 (with_tree s1 t2) g2.
Proof.
  intros F Hpf Kq Hx. eapply Fr_pframe_kids; eauto. intros y Hy HE.
  destruct (N.eq_dec y o) as [->|Hne]; [exfalso; apply HE; apply Hx; exact Hy|].
  rewrite (Kq y Hne). split; [exists []; rewrite app_nil_r; reflexivity|reflexivity].
Qed.

Lemma insert_after_last n a l : NoDup (l ++ [n]) -> insert_after n a (l ++ [n]) = l ++ [n; a].
Proof.
  intros Hnd. rewrite insert_after_split.
  - reflexivity.
  - apply NoDup_remove_2 in Hnd. rewrite app_nil_r in Hnd. exact Hnd.
Qed.

Lemma kids_new g opc th y : kids (astep g (OpNew opc th)) y = kids g y.
Proof. cbn [astep]. destruct (g_free g) as [|x rest]; [apply kids_app_nil|reflexivity]. Qed.

(** [new_step] with the frame: all other objects and all child lists are as before *)
Lemma new_step2 {md} P opc s g (Q : N -> pstate -> Prop) :
  FIm md s g -> newok opc -> lp s + 1 < InvalidIndex ->
  (forall p t' g' po,
     FIm md (with_tree s t') g' -> gext g g' -> ~ glive g p -> glive g' p -> groot g' p -> kids g' p = [] ->
     tget t' p = Some po -> o_opcode po = opc -> o_value po = None ->
     opcodeTableIndex opc true = Some (o_infoIndex po) ->
     (length (t_pool t') <= S (length (t_pool (p_tree s))))%nat ->
     (forall i o, i <> p -> tget (p_tree s) i = Some o -> tget t' i = Some o) ->
     (forall y, kids g' y = kids g y) ->
     (forall x, glive g' x -> glive g x \/ x = p) ->
     Q p (with_tree s t')) ->
  wp P (newObj opc) s Q.
Proof.
  intros H (Hnf & Hmaps & i0 & Hi0 & Hinfo) Hroom K.
  pose proof (fi_R _ _ H) as HR.
  destruct (newObject_R (p_tree s) g opc (p_handle s) HR) as (t' & p & E & HR' & _ & Hp).
  { split; auto. split; auto. intros _. rewrite (R_len _ _ HR). unfold lp in Hroom. lia. }
  destruct (newObject_shape _ _ _ _ _ E) as ((po & Hpo & Hop & Hidx & _ & Hval) & Hfw & Hbw & Hl1 & Hl2).
  destruct (new_slot_fresh (p_tree s) g opc (p_handle s) HR) as (F1 & F2 & F3 & F4). fold (new_slot (p_tree s) g) in Hp.
  rewrite <- Hp in F1, F2, F3, F4.
  rewrite pOpcodeTableIndex_eq, Hi0 in Hidx. inversion Hidx as [Hii].
  unfold wp, newObj. rewrite E.
  apply (K p t' (astep g (OpNew opc (p_handle s))) po); auto.
  - apply FI_with_tree with (g := g); auto.
    + intros i o Hg Hl. destruct (N.eqb_spec i p) as [->|Hne].
      * assert (o = po) by congruence. subst o. rewrite <- Hii. exact Hinfo.
      * apply (fi_info _ _ H i o); auto.
    + apply (ge_live _ _ (gext_new g opc (p_handle s))).
  - apply gext_new.
  - rewrite <- Hii. exact Hi0.
  - intros y. apply kids_new.
  - intros x Hx. destruct (N.eq_dec x p) as [->|Hne]; [right; reflexivity|left].
    revert Hx. unfold new_slot in Hp. cbn [astep]. destruct (g_free g) as [|f0 rest] eqn:Ef; intros [Hlt Hnin]; cbn [g_kids g_free] in *.
    + split; [|rewrite Ef; intros []]. rewrite app_length in Hlt. cbn [length] in Hlt. pose proof (R_len _ _ HR) as HL. lia.
    + split; [exact Hlt|]. rewrite Ef. intros [E0|Hin]; [subst; contradiction|contradiction].
Qed.

Lemma Fr_new (P X E : N -> Prop) s0 g0 s1 g1 (t2 : T) g2 p :
  Fr P X E s0 g0 s1 g1 -> (forall x, glive g0 x -> glive g1 x) -> ~ glive g1 p ->
  (forall i o, i <> p -> tget (p_tree s1) i = Some o -> tget t2 i = Some o) ->
  (forall y, kids g2 y = kids g1 y) ->
  Fr P X E s0 g0 (with_tree s1 t2) g2.
Proof.
  intros [K G] Hl Hp Hfw Hk. constructor.
  - intros i o Hi Ho. destruct (K i o Hi Ho) as (o1 & Ho1 & E1). exists o1. split; [|exact E1].
    cbn [p_tree with_tree]. apply Hfw; [|exact Ho1]. intros ->. apply Hp. apply Hl. exact Hi.
  - intros y Hy HE. rewrite Hk. apply (G y Hy HE).
Qed.

Lemma appendAfter_step2 {md} P o a n s g g0 (Q : unit -> pstate -> Prop) :
  FIm md s g -> gwf g0 -> gext g0 g -> glive g0 o -> ~ glive g0 a -> glive g a -> groot g a -> In n (kids g o) ->
  (forall t', FIm md (with_tree s t') (astep g (OpAppendAfter o a n)) -> gext g0 (astep g (OpAppendAfter o a n)) ->
              pframe (p_tree s) t' -> kids (astep g (OpAppendAfter o a n)) o = insert_after n a (kids g o) ->
              (forall q, q <> o -> kids (astep g (OpAppendAfter o a n)) q = kids g q) ->
              Q tt (with_tree s t')) ->
  wp P (tu (fun t => appendAfter t o a n)) s Q.
Proof.
  intros H Hwf Hext Hlo Hna Hla Hroot Hin K.
  destruct (appendAfter_full (p_tree s) g g0 o a n (fi_R _ _ H) Hwf Hext Hlo Hna Hla Hroot Hin) as (t' & E & HR' & Hpf & Hext').
  assert (Holt : o < N.of_nat (length (g_kids g))) by (apply glive_lt; eapply ge_live; eauto).
  apply wp_tu. exists t'. split; auto. apply K; auto.
  - apply FI_with_tree with (g := g); auto.
    + eapply info_valid_pframe; [apply (fi_info _ _ H)|exact Hpf].
    + intros x Hx. cbn [astep]. apply glive_set_kids; auto.
  - cbn [astep]. rewrite kids_set_kids by auto. rewrite N.eqb_refl. reflexivity.
  - intros q Hq. cbn [astep]. rewrite kids_set_kids by auto. apply N.eqb_neq in Hq. rewrite Hq. reflexivity.
Qed.

(** ---- partial correctness: no function below creates a Method object or turns an object into one ---- *)
Definition nmeth {A} (m : M A) : Prop :=
  forall s a s', m s = Ok (a, s') -> forall i o, tget (p_tree s') i = Some o -> o_opcode o = aml_pOpMethod ->
    exists o0, tget (p_tree s) i = Some o0 /\ o_opcode o0 = aml_pOpMethod.


Lemma nmeth_steps : steps (no_new aml_pOpMethod) (fun op => op <> aml_pOpMethod).
Proof. apply no_new_steps. cbn [In named_opcodes]. intros H. decompose [or] H; try contradiction; discriminate. Qed.

Lemma nmeth_bind {A B} (m : M A) (f : A -> M B) : nmeth m -> (forall a, nmeth (f a)) -> nmeth (bindM m f).
Proof. exact (runs_bind _ (st_trans _ _ nmeth_steps) m f). Qed.
Lemma nmeth_if {A} (b : bool) (m1 m2 : M A) : nmeth m1 -> nmeth m2 -> nmeth (if b then m1 else m2).
Proof. destruct b; auto. Qed.

Ltac nmeth_tac :=
  repeat lazymatch goal with
  | |- nmeth (bindM _ _) => apply nmeth_bind; [|intros ?]
  | |- nmeth (match ?x with _ => _ end) => first [apply nmeth_if | destruct x]
  | |- nmeth (newObj _) => apply (runs_newObj _ _ nmeth_steps); discriminate
  | |- nmeth _ => apply (runs_inert _ _ nmeth_steps); inert_prim
  end.

Lemma parseByteList_nmeth obj dataLen : nmeth (parseByteList obj dataLen).
Proof. exact (parseByteList_runs _ _ nmeth_steps obj dataLen). Qed.

Lemma parseSimpleArg_nmeth argTy : nmeth (parseSimpleArg argTy).
Proof. exact (parseSimpleArg_runs _ _ nmeth_steps argTy). Qed.

Lemma parseFieldElements_nmeth curObj : nmeth (parseFieldElements curObj).
Proof. exact (parseFieldElements_runs _ _ nmeth_steps curObj). Qed.
