(** C11 (fragment proofs): exact specifications of the first-pass functions on encoded declarations.

    [next_head]: parseNextObject in front of an encoded opcode creates the object, records its offset, appends
    it to the current scope and goes on with parseObjectArgs.
    [simpleArg_name] / [next_name]: the arguments of a Name object in the first pass: the name path (the value is left for
    the next parseNextObject: the parser attaches it in connectNamedObjArgs).
    [next_const]: an integer constant (Zero / One / Ones / Byte- / Word- / DWord- / QWordPrefix). *)
From Coq Require Import NArith ZArith Arith List Bool Lia.
From Coq Require Import ZifyBool ZifyN ZifyNat.
From FF Require Import Lib.Word Gen.Consts_device_acpi_aml Gen.Consts_aml_tree Aml.Stream Aml.Lex Aml.LexProofs
  Aml.Tree Aml.TreeSpec Aml.TreeProofs Aml.TreeProofsOps Aml.TreeProofsFind Aml.Parser Aml.Grammar Aml.LexRoundtrip
  Aml.ParserTotalTree Aml.ParserTotalTree2 Aml.ParserTotalLex Aml.ParserTotalTable Aml.ParserTotalBase
  Aml.ParserFragBase.
Import ListNotations.
Local Open Scope N_scope.

(** ---- tokens ---- *)
Lemma at_split r pre a b post : at_token r pre (a ++ b) post -> at_token r pre a (b ++ post).
Proof.
  intros [D O E W]. constructor; auto.
  - rewrite D, <- app_assoc. reflexivity.
  - rewrite lenN_app in E. lia.
Qed.

Lemma at_adv r pre a b post : at_token r pre (a ++ b) post ->
  at_token (set_offset_raw r (lenN pre + lenN a)) (pre ++ a) b post.
Proof.
  intros [D O E W]. constructor; cbn [r_data r_offset r_pkgEnd set_offset_raw].
  - rewrite D, <- !app_assoc. reflexivity.
  - rewrite lenN_app. reflexivity.
  - rewrite !lenN_app in *. lia.
  - destruct W as (W1 & W2 & W3 & W4). unfold reader_wf. cbn. auto.
Qed.

Lemma at_cons_split r pre x b post : at_token r pre (x :: b) post -> at_token r pre [x] (b ++ post).
Proof. intros H. apply (at_split r pre [x] b post). exact H. Qed.

Lemma at_not_eof r pre x tok post : at_token r pre (x :: tok) post -> eof r = false.
Proof. intros [D O E W]. unfold eof. rewrite O. rewrite lenN_cons in E. apply N.leb_gt. lia. Qed.

(** ---- payload projections ---- *)
Lemma pay_op (o : Obj) a : pay_of o = a -> o_opcode o = y_op a. Proof. intros <-. reflexivity. Qed.
Lemma pay_info (o : Obj) a : pay_of o = a -> o_infoIndex o = y_info a. Proof. intros <-. reflexivity. Qed.
Lemma pay_th (o : Obj) a : pay_of o = a -> o_tableHandle o = y_th a. Proof. intros <-. reflexivity. Qed.
Lemma pay_val (o : Obj) a : pay_of o = a -> o_value o = y_val a. Proof. intros <-. reflexivity. Qed.
Lemma pay_name (o : Obj) a : pay_of o = a -> o_name o = y_name a. Proof. intros <-. reflexivity. Qed.

(** ---- fresh slots in the forest ---- *)
Lemma groot_fresh (t : T) g : R t g -> groot (gnew g) (N.of_nat (length (g_kids g))).
Proof.
  intros HR p Hin. rewrite kids_gnew in Hin. destruct (R_gwf _ _ HR _ _ Hin) as (_ & Hl). destruct Hl as [Hlt _]. lia.
Qed.

Lemma kids_fresh g : kids g (N.of_nat (length (g_kids g))) = [].
Proof. apply kids_oob. lia. Qed.

(** ---- parseNextObject in front of an opcode ---- *)
Definition g_head (g : ghost) (sc : N) : ghost :=
  set_kids (gnew g) sc (kids g sc ++ [N.of_nat (length (g_kids g))]).

Lemma next_head f op idx s g pl pre rest post sc scs a (Q : pres -> pstate -> Prop) :
  Rep (p_tree s) g pl -> g_free g = [] -> N.of_nat (length pl) < InvalidIndex ->
  at_token (p_r s) pre (enc_op op ++ rest) post -> valid_opcode op -> op <> aml_pOpNoop ->
  op <> opFreed -> opcodeTableIndex op true = Some idx ->
  p_scopeStack s = sc :: scs -> pget pl sc = Some a -> y_op a <> opFreed ->
  (forall t', Rep t' (g_head g sc) (pl ++ [mkPay op idx (p_handle s) name_zero (lenN pre) 0 None]) ->
     wp False (parseObjectArgs f (N.of_nat (length pl)))
        (with_tree (with_r s (set_offset_raw (p_r s) (lenN pre + lenN (enc_op op)))) t') Q) ->
  wp False (parseNextObject (S f)) s Q.
Proof.
  intros H Hfree Hroom Hat Hvalid Hnoop Hnf Hidx Est Hsc Hlsc K.
  pose proof (rep_len_g _ _ _ H) as Hlg.
  cbn [parseNextObject]. unfold offsetM, rq.
  apply wp_bind, wp_get.
  apply wp_bind. apply wp_lex.
  exists op, true, (set_offset_raw (p_r s) (lenN pre + lenN (enc_op op))). split.
  { apply (opcode_roundtrip op (p_r s) pre (rest ++ post) Hvalid). apply at_split. exact Hat. }
  cbv beta iota.
  assert (En : op =? aml_pOpNoop = false) by (apply N.eqb_neq; exact Hnoop). rewrite En. cbn [negb].
  pose proof (at_off _ _ _ _ Hat) as Hoff.
  set (s1 := with_r s (set_offset_raw (p_r s) (lenN pre + lenN (enc_op op)))).
  assert (Hmaps : opcode_in_maps op).
  { destruct Hvalid as (Hle & _). unfold opcode_in_maps. change (length tree_extendedOpcodeMap) with 256%nat. clear -Hle; lia. }
  apply wp_bind. eapply (wp_newObj_rep False op idx s1 g pl); [exact H|exact Hfree|exact Hroom|exact Hnf|exact Hmaps|exact Hidx|].
  intros t1 H1.
  apply wp_bind. eapply (wp_wrf_rep False _ _ (ys_off (r_offset (p_r s)))); [exact H1|apply pget_app_last|exact Hnf|apply st_amlOffset|].
  intros t2 H2. rewrite pupd_app_last in H2. unfold ys_off in H2; cbn [y_op y_info y_th y_name y_off y_pkgEnd y_val] in H2. rewrite Hoff in H2.
  assert (Hsclt : sc < N.of_nat (length pl)) by (eapply pget_lt; eauto).
  assert (Hsc2 : pget (pl ++ [mkPay op idx (p_handle s1) name_zero (lenN pre) 0 None]) sc = Some a).
  { rewrite pget_app_l by exact Hsclt. exact Hsc. }
  apply wp_bind. eapply wp_scopeCurrent; [exact Est|].
  scbn. rewrite (rep_ObjectAt _ _ _ H2 _ _ Hsc2 Hlsc).
  assert (Hlive_sc : glive g sc) by (eapply rep_live; eauto).
  rewrite <- Hlg.
  apply wp_bind. eapply wp_append_rep; [exact H2|apply glive_gnew; assumption|apply glive_gnew_new| | |].
  { eapply groot_fresh. apply (rep_R _ _ _ H). }
  { intros Hd. apply desc_leaf in Hd; [|rewrite kids_gnew; apply kids_fresh]. clear -Hd Hsclt Hlg; lia. }
  intros t3 H3. rewrite kids_gnew in H3. rewrite Hlg in *.
  assert (H3' : Rep t3 (g_head g sc) (pl ++ [mkPay op idx (p_handle s) name_zero (lenN pre) 0 None])) by (unfold g_head; rewrite Hlg; exact H3).
  exact (K t3 H3').
Qed.

(** ---- parseObjectArgs of an opcode that is not a data prefix ---- *)
Definition is_prefix_op (op : N) : bool :=
  (op =? aml_pOpBytePrefix) || (op =? aml_pOpWordPrefix) || (op =? aml_pOpDwordPrefix) || (op =? aml_pOpQwordPrefix) ||
  (op =? aml_pOpStringPrefix).

Lemma objargs_other f cur a inf s g pl (Q : pres -> pstate -> Prop) :
  Rep (p_tree s) g pl -> pget pl cur = Some a -> y_op a <> opFreed -> is_prefix_op (y_op a) = false ->
  opInfo (y_info a) = Some inf ->
  wp False (parseArgs f inf cur 0) s (fun res s' => Q (match res with RShort => ROk | r => r end) s') ->
  wp False (parseObjectArgs (S f) cur) s Q.
Proof.
  intros H Ha Hl Hp Hinf K. cbn [parseObjectArgs].
  apply wp_bind. eapply wp_rdf_rep; [exact H|exact Ha|exact Hl|]. intros o Ho _ _ _. rewrite (pay_op _ _ Ho).
  unfold curTable. apply wp_bind, wp_get.
  unfold is_prefix_op in Hp. repeat (apply orb_false_elim in Hp; destruct Hp as [Hp ?]).
  repeat match goal with E : (_ =? _) = false |- _ => rewrite E; clear E end.
  apply wp_bind. apply wp_bind. eapply wp_rdf_rep; [exact H|exact Ha|exact Hl|]. intros o' Ho' _ _ _. rewrite (pay_info _ _ Ho').
  apply wp_bind. eapply wp_info; [exact Hinf|].
  eapply wp_conseq; [exact K|]. intros res s' HQ. apply wp_ret. exact HQ.
Qed.

(** ---- the name path argument ---- *)
Lemma simpleArg_name_eq :
  parseSimpleArg aml_pArgTypeNameString =
  (mlet obj <~ newObj 0 ;;
   mlet off <~ offsetM ;;
   wrf obj (set_amlOffset off) ;;;
   mlet tbl <~ curTable ;;
   wrf obj (set_opcode aml_pOpIntNamePath) ;;;
   mlet '(v, ok) <~ lex parseNameString ;;
   wrf obj (set_value (Some (bytesValue tbl v))) ;;;
   mlet idx <~ tableIndex aml_pOpIntNamePath true ;;
   wrf obj (set_infoIndex idx) ;;;
   ret (Some obj, pres_of_bool ok)).
Proof. reflexivity. Qed.

Definition cur_tbl (s : pstate) : N := N.of_nat (length (p_tables s)) - 1.

Definition path_pay (s : pstate) (off len : N) : pay :=
  mkPay aml_pOpIntNamePath 118 (p_handle s) name_zero off 0 (Some (VBytes (cur_tbl s) (mkSlice (Some off) len))).

Lemma simpleArg_name nm s g pl pre rest post (Q : option N * pres -> pstate -> Prop) :
  Rep (p_tree s) g pl -> g_free g = [] -> N.of_nat (length pl) < InvalidIndex ->
  at_token (p_r s) pre (enc_name nm ++ rest) post -> wf_name nm -> 1 <= name_slice_len nm ->
  (forall t', Rep t' (gnew g) (pl ++ [path_pay s (lenN pre) (name_slice_len nm)]) ->
     Q (Some (N.of_nat (length pl)), ROk)
       (with_tree (with_r s (set_offset_raw (p_r s) (lenN pre + lenN (enc_name nm)))) t')) ->
  wp False (parseSimpleArg aml_pArgTypeNameString) s Q.
Proof.
  intros H Hfree Hroom Hat Hwf Hlen K. rewrite simpleArg_name_eq.
  apply wp_bind. eapply (wp_newObj_rep False 0 0 s g pl); [exact H|exact Hfree|exact Hroom|discriminate| |reflexivity|].
  { left. lia. }
  intros t1 H1. unfold offsetM, rq. apply wp_bind, wp_get. scbn.
  apply wp_bind. eapply (wp_wrf_rep False _ _ (ys_off (r_offset (p_r s)))); [exact H1|apply pget_app_last|discriminate|apply st_amlOffset|].
  intros t2 H2. rewrite pupd_app_last in H2. unfold ys_off in H2; cbn [y_op y_info y_th y_name y_off y_pkgEnd y_val] in H2.
  rewrite (at_off _ _ _ _ Hat) in H2.
  unfold curTable. apply wp_bind, wp_get. scbn.
  apply wp_bind. eapply (wp_wrf_rep False _ _ (ys_opcode aml_pOpIntNamePath)); [exact H2|apply pget_app_last|discriminate|apply st_opcode; discriminate|].
  intros t3 H3. rewrite pupd_app_last in H3. unfold ys_opcode in H3; cbn [y_op y_info y_th y_name y_off y_pkgEnd y_val] in H3.
  apply wp_bind. apply wp_lex.
  exists (mkSlice (Some (lenN pre)) (name_slice_len nm)), true, (set_offset_raw (p_r s) (lenN pre + lenN (enc_name nm))). split.
  { apply (name_roundtrip nm (p_r s) pre (rest ++ post) Hwf). apply at_split. exact Hat. }
  cbv beta iota. unfold bytesValue. cbn [s_ptr].
  apply wp_bind. eapply (wp_wrf_rep False _ _ (ys_val _)); [exact H3|apply pget_app_last|discriminate|apply st_value|].
  intros t4 H4. rewrite pupd_app_last in H4. unfold ys_val in H4; cbn [y_op y_info y_th y_name y_off y_pkgEnd y_val] in H4.
  apply wp_bind. eapply wp_tableIndex; [reflexivity|].
  apply wp_bind. eapply (wp_wrf_rep False _ _ (ys_info _)); [exact H4|apply pget_app_last|discriminate|apply st_infoIndex|].
  intros t5 H5. rewrite pupd_app_last in H5. unfold ys_info in H5; cbn [y_op y_info y_th y_name y_off y_pkgEnd y_val] in H5.
  apply wp_ret. cbn [pres_of_bool]. apply K. exact H5.
Qed.

(** ---- the arguments of Name in the first pass ---- *)
Lemma parseArg_NameString f inf cur : parseArg (S f) inf cur aml_pArgTypeNameString = parseSimpleArg aml_pArgTypeNameString.
Proof. destruct inf as [[a b] c]. reflexivity. Qed.

Lemma parseArg_DataRef f inf cur s : p_allBlocks s = false ->
  parseArg (S f) inf cur aml_pArgTypeDataRefObj s = Ok ((None, RShort), s).
Proof.
  destruct inf as [[a b] c]. intros E.
  change (parseArg (S f) (a, b, c) cur aml_pArgTypeDataRefObj) with
    (mlet allBlocks <~ get p_allBlocks ;; if allBlocks then parseStrictTermArg f cur else ret (None, RShort)).
  unfold bindM, get. rewrite E. reflexivity.
Qed.

Definition name_inf : N * N * N := (aml_pOpName, 1, 3081).
Lemma name_info : opInfo 3 = Some name_inf. Proof. reflexivity. Qed.

Definition g_name (g : ghost) (sc : N) : ghost :=
  let n := N.of_nat (length (g_kids g)) in set_kids (gnew (g_head g sc)) n [n + 1].

Lemma len_g_head g sc : length (g_kids (g_head g sc)) = S (length (g_kids g)).
Proof. unfold g_head. rewrite len_set_kids, len_gnew. reflexivity. Qed.

Lemma free_g_head g sc : g_free (g_head g sc) = [].
Proof. reflexivity. Qed.

Lemma len_g_name g sc : length (g_kids (g_name g sc)) = S (S (length (g_kids g))).
Proof. unfold g_name. cbv zeta. rewrite len_set_kids, len_gnew, len_g_head. reflexivity. Qed.

Lemma kids_g_head g sc i : sc < N.of_nat (length (g_kids g)) ->
  kids (g_head g sc) i = if i =? sc then kids g sc ++ [N.of_nat (length (g_kids g))] else kids g i.
Proof.
  intros Hsc. unfold g_head. rewrite kids_set_kids by (rewrite len_gnew; lia). rewrite kids_gnew. reflexivity.
Qed.

Lemma kids_g_name g sc i : sc < N.of_nat (length (g_kids g)) ->
  kids (g_name g sc) i =
  if i =? N.of_nat (length (g_kids g)) then [N.of_nat (length (g_kids g)) + 1]
  else if i =? sc then kids g sc ++ [N.of_nat (length (g_kids g))] else kids g i.
Proof.
  intros Hsc. unfold g_name. cbv zeta. rewrite kids_set_kids by (rewrite len_gnew, len_g_head; lia).
  rewrite kids_gnew, kids_g_head by exact Hsc. reflexivity.
Qed.

Definition seg_name (seg : N) : namestr := mkName false 0 false [seg].

Lemma enc_seg_name seg : enc_name (seg_name seg) = seg_bytes seg.
Proof.
  cbv [enc_name seg_name n_root n_carets n_segs n_multi]. change (lenN [seg]) with 1.
  change (N.to_nat 0) with 0%nat. change (2 <? 1) with false. change (1 =? 2) with false.
  cbn [repeat app orb flat_map]. apply app_nil_r.
Qed.

Definition lead_okb (b : N) : bool := ((0x41 <=? b) && (b <=? 0x5a)) || (b =? 0x5f).

Lemma wf_seg_name seg : lead_okb (seg_lead seg) = true -> wf_name (seg_name seg).
Proof.
  intros H. split; [cbn; lia|]. cbn [n_segs seg_name n_multi]. right. unfold lead_char. unfold lead_okb in H.
  apply orb_prop in H. destruct H as [H|H]; [left; apply andb_prop in H; destruct H; lia|right; lia].
Qed.

Lemma slice_seg_name seg : name_slice_len (seg_name seg) = 4.
Proof. unfold name_slice_len. cbn [n_segs seg_name]. rewrite enc_seg_name. reflexivity. Qed.

Lemma next_name f s g pl pre seg rest post sc scs a :
  Rep (p_tree s) g pl -> g_free g = [] -> N.of_nat (length pl) + 1 < InvalidIndex ->
  at_token (p_r s) pre (OP_NAME :: seg_bytes seg ++ rest) post -> lead_okb (seg_lead seg) = true ->
  p_scopeStack s = sc :: scs -> pget pl sc = Some a -> y_op a <> opFreed -> p_allBlocks s = false ->
  wp False (parseNextObject (S (S (S (S (S f)))))) s (fun res s' => res = ROk /\ exists t',
    s' = with_tree (with_r s (set_offset_raw (p_r s) (lenN pre + 5))) t' /\
    Rep t' (g_name g sc)
        (pl ++ [mkPay aml_pOpName 3 (p_handle s) name_zero (lenN pre) 0 None; path_pay s (lenN pre + 1) 4])).
Proof.
  intros H Hfree Hroom Hat Hlead Est Hsc Hlsc Hab.
  pose proof (rep_len_g _ _ _ H) as Hlg.
  assert (Hsclt : sc < N.of_nat (length pl)) by (eapply pget_lt; eauto).
  eapply (next_head _ aml_pOpName 3 s g pl pre (seg_bytes seg ++ rest) post sc scs a);
    [exact H|exact Hfree|lia|exact Hat| | discriminate|discriminate|reflexivity|exact Est|exact Hsc|exact Hlsc|].
  { split; [cbv; discriminate|]. exists 3. split; [reflexivity|discriminate]. }
  intros t1 H1. change (lenN (enc_op aml_pOpName)) with 1.
  set (s1 := with_tree (with_r s (set_offset_raw (p_r s) (lenN pre + 1))) t1).
  set (pl1 := pl ++ [mkPay aml_pOpName 3 (p_handle s) name_zero (lenN pre) 0 None]) in *.
  assert (Hl1 : length pl1 = S (length pl)) by (unfold pl1; rewrite app_length; cbn [length]; clear; lia).
  assert (Hn : pget pl1 (N.of_nat (length pl)) = Some (mkPay aml_pOpName 3 (p_handle s) name_zero (lenN pre) 0 None))
    by apply pget_app_last.
  eapply (objargs_other _ _ _ name_inf s1 _ pl1); [exact H1|exact Hn|discriminate|reflexivity|reflexivity|].
  (* parseArgs, argument 0 *)
  unfold name_inf. cbn [parseArgs]. change (argCount 3081) with 2. change (2 =? 0) with false. change (2 <=? 0) with false. cbv iota.
  change (argType 3081 0) with aml_pArgTypeNameString. rewrite parseArg_NameString.
  assert (Hat1 : at_token (p_r s1) (pre ++ [OP_NAME]) (enc_name (seg_name seg) ++ rest) post).
  { rewrite enc_seg_name. apply (at_adv (p_r s) pre [OP_NAME] (seg_bytes seg ++ rest) post). exact Hat. }
  apply wp_bind.
  eapply (simpleArg_name (seg_name seg) s1 _ pl1 _ rest post); [exact H1|apply free_g_head|clear -Hl1 Hroom; lia|exact Hat1|apply wf_seg_name; exact Hlead|rewrite slice_seg_name; clear; lia|].
  intros t2 H2. cbv beta iota.
  rewrite slice_seg_name, enc_seg_name, lenN_app in *. change (lenN [OP_NAME]) with 1 in *. change (lenN (seg_bytes seg)) with 4.
  set (pl2 := pl1 ++ [path_pay s1 (lenN pre + 1) 4]) in *.
  assert (Hl2 : length pl2 = S (S (length pl))) by (unfold pl2; rewrite app_length; cbn [length]; clear -Hl1; lia).
  (* append the path to the Name object *)
  assert (Hlg1 : length (g_kids (gnew (g_head g sc))) = S (S (length pl))) by (rewrite len_gnew, len_g_head; clear -Hlg; lia).
  assert (Hlive_n : glive (gnew (g_head g sc)) (N.of_nat (length pl))).
  { split; [rewrite Hlg1; clear; lia|cbn; tauto]. }
  assert (Hlive_p : glive (gnew (g_head g sc)) (N.of_nat (length pl1))).
  { split; [rewrite Hlg1; clear -Hl1; lia|cbn; tauto]. }
  assert (Hkn : kids (g_head g sc) (N.of_nat (length pl)) = []).
  { rewrite kids_g_head by (clear -Hsclt Hlg; lia). destruct (N.eqb_spec (N.of_nat (length pl)) sc); [clear -e Hsclt; lia|]. apply kids_oob. clear -Hlg; lia. }
  apply wp_bind. eapply wp_append_rep; [exact H2|exact Hlive_n|exact Hlive_p| | |].
  { replace (N.of_nat (length pl1)) with (N.of_nat (length (g_kids (g_head g sc)))) by (rewrite len_g_head; clear -Hl1 Hlg; lia).
    eapply groot_fresh. apply (rep_R _ _ _ H1). }
  { intros Hd. apply desc_leaf in Hd; [clear -Hd Hl1; lia|]. rewrite kids_gnew. apply kids_oob. rewrite len_g_head. clear -Hl1 Hlg; lia. }
  intros t3 H3. rewrite kids_gnew, Hkn in H3. cbn [app] in H3.
  change (pres_eqb ROk ROk) with true. cbv iota.
  (* argument 1: left to the next parseNextObject *)
  change (w8 (0 + 1)) with 1. cbn [parseArgs]. change (argCount 3081) with 2. change (2 =? 0) with false. change (2 <=? 1) with false. cbv iota.
  change (argType 3081 1) with aml_pArgTypeDataRefObj.
  apply wp_bind. eapply wp_of_run; [apply parseArg_DataRef; exact Hab|]. cbv beta iota.
  apply wp_bind. apply wp_ret. change (pres_eqb RShort ROk) with false. cbv iota. apply wp_ret.
  split; [reflexivity|]. exists t3. split.
  - unfold s1. replace (lenN pre + 1 + 4) with (lenN pre + 5) by (clear; lia). reflexivity.
  - unfold g_name. cbv zeta. rewrite Hlg. replace (N.of_nat (length pl) + 1) with (N.of_nat (length pl1)) by (clear -Hl1; lia).
    unfold pl2, pl1 in H3. rewrite <- app_assoc in H3. exact H3.
Qed.

(** ---- integer constants ---- *)
Definition prefix_bytes (op : N) : option nat :=
  if op =? aml_pOpBytePrefix then Some 1%nat else if op =? aml_pOpWordPrefix then Some 2%nat
  else if op =? aml_pOpDwordPrefix then Some 4%nat else if op =? aml_pOpQwordPrefix then Some 8%nat else None.

Lemma objargs_num f cur a k s g pl pre v rest post (Q : pres -> pstate -> Prop) :
  Rep (p_tree s) g pl -> pget pl cur = Some a -> y_op a <> opFreed -> prefix_bytes (y_op a) = Some k ->
  at_token (p_r s) pre (Grammar.le_bytes k v ++ rest) post -> v < 2 ^ (N.of_nat k * 8) ->
  (forall t', Rep t' g (pupd pl cur (ys_val (Some (VNum v)))) ->
      Q ROk (with_tree (with_r s (set_offset_raw (p_r s) (lenN pre + N.of_nat k))) t')) ->
  wp False (parseObjectArgs (S f) cur) s Q.
Proof.
  intros H Ha Hl Hk Hat Hv K. cbn [parseObjectArgs].
  apply wp_bind. eapply wp_rdf_rep; [exact H|exact Ha|exact Hl|]. intros o Ho _ _ _. rewrite (pay_op _ _ Ho).
  unfold curTable. apply wp_bind, wp_get.
  assert (Hk8 : (k <= 8)%nat).
  { unfold prefix_bytes in Hk. repeat match type of Hk with (if ?c then _ else _) = _ => destruct c end; inversion Hk; lia. }
  assert (Hlex : parseNumConstant (N.of_nat k) (p_r s) = Ok (v, true, set_offset_raw (p_r s) (lenN pre + N.of_nat k))).
  { apply (num_roundtrip k v (p_r s) pre (rest ++ post) Hk8 Hv). apply at_split. exact Hat. }
  assert (Hfin : wp False (mlet '(v0, ok) <~ lex (parseNumConstant (N.of_nat k)) ;; wrf cur (set_value (Some (VNum v0))) ;;; ret (pres_of_bool ok)) s
                   (fun res s' => Q (match res with RShort => ROk | r => r end) s')).
  { apply wp_bind. apply wp_lex. exists v, true, (set_offset_raw (p_r s) (lenN pre + N.of_nat k)). split; [exact Hlex|].
    cbv beta iota. apply wp_bind. eapply (wp_wrf_rep False _ _ (ys_val _)); [exact H|exact Ha|exact Hl|apply st_value|].
    intros t' H'. apply wp_ret. cbn [pres_of_bool]. apply K. exact H'. }
  apply wp_bind. unfold prefix_bytes in Hk.
  destruct (y_op a =? aml_pOpBytePrefix); [inversion Hk; subst k; eapply wp_conseq; [exact Hfin|intros r s' HQ; apply wp_ret; exact HQ]|].
  destruct (y_op a =? aml_pOpWordPrefix); [inversion Hk; subst k; eapply wp_conseq; [exact Hfin|intros r s' HQ; apply wp_ret; exact HQ]|].
  destruct (y_op a =? aml_pOpDwordPrefix); [inversion Hk; subst k; eapply wp_conseq; [exact Hfin|intros r s' HQ; apply wp_ret; exact HQ]|].
  destruct (y_op a =? aml_pOpQwordPrefix); [inversion Hk; subst k; eapply wp_conseq; [exact Hfin|intros r s' HQ; apply wp_ret; exact HQ]|].
  discriminate.
Qed.

Definition is_constb (op : N) : bool :=
  (op =? aml_pOpZero) || (op =? aml_pOpOne) || (op =? aml_pOpOnes) || (op =? OP_BYTE) || (op =? OP_WORD) || (op =? OP_DWORD) || (op =? OP_QWORD).

Definition const_info (op : N) : N := match opcodeTableIndex op true with Some i => i | None => 0 end.

Definition const_val (op v : N) : option value := match const_bytes op with O => None | _ => Some (VNum v) end.

Definition const_pay (s : pstate) (off op v : N) : pay :=
  mkPay op (const_info op) (p_handle s) name_zero off 0 (const_val op v).

Lemma is_constb_cases op : is_constb op = true ->
  op = aml_pOpZero \/ op = aml_pOpOne \/ op = aml_pOpOnes \/ op = OP_BYTE \/ op = OP_WORD \/ op = OP_DWORD \/ op = OP_QWORD.
Proof.
  unfold is_constb. intros H. repeat (apply orb_prop in H; destruct H as [H|H]); apply N.eqb_eq in H; tauto.
Qed.

Lemma next_const f s g pl pre op v rest post sc scs a :
  Rep (p_tree s) g pl -> g_free g = [] -> N.of_nat (length pl) < InvalidIndex ->
  at_token (p_r s) pre (enc_op op ++ Grammar.le_bytes (const_bytes op) v ++ rest) post -> is_constb op = true ->
  v < 2 ^ (N.of_nat (const_bytes op) * 8) ->
  p_scopeStack s = sc :: scs -> pget pl sc = Some a -> y_op a <> opFreed ->
  wp False (parseNextObject (S (S (S f)))) s (fun res s' => res = ROk /\ exists t',
    s' = with_tree (with_r s (set_offset_raw (p_r s) (lenN pre + lenN (enc_op op) + N.of_nat (const_bytes op)))) t' /\
    Rep t' (g_head g sc) (pl ++ [const_pay s (lenN pre) op v])).
Proof.
  intros H Hfree Hroom Hat Hc Hv Est Hsc Hlsc.
  assert (Hops : valid_opcode op /\ op <> aml_pOpNoop /\ op <> opFreed /\ opcodeTableIndex op true = Some (const_info op)).
  { destruct (is_constb_cases _ Hc) as [E|[E|[E|[E|[E|[E|E]]]]]]; subst op;
      (split; [split; [cbv; discriminate|eexists; split; [reflexivity|discriminate]]|split; [discriminate|split; [discriminate|reflexivity]]]). }
  destruct Hops as (Hvalid & Hnoop & Hnf & Hidx).
  eapply (next_head _ op (const_info op) s g pl pre _ post sc scs a);
    [exact H|exact Hfree|exact Hroom|exact Hat|exact Hvalid|exact Hnoop|exact Hnf|exact Hidx|exact Est|exact Hsc|exact Hlsc|].
  intros t1 H1.
  set (s1 := with_tree (with_r s (set_offset_raw (p_r s) (lenN pre + lenN (enc_op op)))) t1).
  set (a1 := mkPay op (const_info op) (p_handle s) name_zero (lenN pre) 0 None) in *.
  assert (Hn : pget (pl ++ [a1]) (N.of_nat (length pl)) = Some a1) by apply pget_app_last.
  assert (Hat1 : at_token (p_r s1) (pre ++ enc_op op) (Grammar.le_bytes (const_bytes op) v ++ rest) post).
  { apply (at_adv (p_r s) pre (enc_op op) _ post). exact Hat. }
  destruct (prefix_bytes op) as [k|] eqn:Ek.
  - (* a data prefix *)
    assert (Hk : const_bytes op = k).
    { destruct (is_constb_cases _ Hc) as [E|[E|[E|[E|[E|[E|E]]]]]]; subst op; cbv in Ek; inversion Ek; reflexivity. }
    rewrite Hk in *.
    eapply (objargs_num _ _ a1 k s1 _ _ _ v rest post); [exact H1|exact Hn|exact Hnf|exact Ek|exact Hat1|exact Hv|].
    intros t2 H2. split; [reflexivity|]. exists t2. split.
    + unfold s1. rewrite lenN_app. reflexivity.
    + rewrite pupd_app_last in H2. unfold const_pay, const_val. rewrite Hk.
      assert (Hk0 : k <> 0%nat).
      { destruct (is_constb_cases _ Hc) as [E|[E|[E|[E|[E|[E|E]]]]]]; subst op; cbv in Ek; inversion Ek; clear; lia. }
      destruct k; [congruence|]. exact H2.
  - (* Zero / One / Ones *)
    assert (Hk : const_bytes op = 0%nat /\ is_prefix_op op = false /\ opInfo (const_info op) = Some (op, 2, 0)).
    { destruct (is_constb_cases _ Hc) as [E|[E|[E|[E|[E|[E|E]]]]]]; subst op; cbv in Ek; try discriminate; repeat split; reflexivity. }
    destruct Hk as (Hk & Hnp & Hinf).
    eapply (objargs_other _ _ a1 (op, 2, 0) s1 _ _); [exact H1|exact Hn|exact Hnf|exact Hnp|exact Hinf|].
    cbn [parseArgs]. change (argCount 0) with 0. change (0 =? 0) with true. cbv iota. apply wp_ret.
    split; [reflexivity|]. exists t1. split.
    + unfold s1. rewrite Hk. rewrite N.add_0_r. reflexivity.
    + unfold const_pay, const_val. rewrite Hk. exact H1.
Qed.
