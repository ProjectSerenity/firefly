(** parseDeferredBlocks: the step of parseObjectArgs - constants get their value, every other object its
    arguments. *)
From Coq Require Import NArith Arith List Bool Lia.
From Coq Require Import ZifyBool ZifyN ZifyNat.
From FF Require Import Lib.Word Gen.Consts_device_acpi_aml Gen.Consts_aml_tree Aml.Stream Aml.Lex Aml.LexProofs
  Aml.Tree Aml.Parser Aml.ParserProofs Aml.TreeSpec Aml.TreeProofs Aml.TreeProofsOps Aml.TreeProofsFind Aml.TreeProofsAnc
  Aml.ParserTotalTree Aml.ParserTotalTree2 Aml.ParserTotalLex Aml.ParserTotalTable Aml.ParserTotalBase Aml.ParserTotalLeaf
  Aml.ParserTotalFrame Aml.ParserTotalLeaf2 Aml.ParserTotalFirst Aml.ParserTotalConn Aml.ParserTotalReloc Aml.ParserTotalDefer
  Aml.ParserTotalDeferS Aml.ParserTotalDeferA Aml.ParserTotalDeferG.
Import ListNotations.
Local Open Scope N_scope.

Section StepO.
Variable tbls : list (list N).
Notation IV := (Inv tbls).

(** the postcondition of parseObjectArgs *)
Definition ObjPost (curObj : N) (s : pstate) (g : ghost) (res : pres) (s' : pstate) : Prop :=
  exists g', FD s' g' /\ ExtD s g s' g' /\
    Fr (eq curObj) (eq curObj) (fun y => hasfl s curObj /\ In curObj (kids g y)) s g s' g' /\
    finsert s' g g' curObj /\ Psi s' <= Psi s + 3 /\ res <> RShort /\
    (res = ROk -> Psi s' <= Psi s + 1 /\ TM NoX s' g' /\ p_scopeStack s' = p_scopeStack s).

(** a prefix object: its value is read; nothing else changes *)
Lemma objargs_value curObj s g r1 v co (res : pres) :
  FD s g -> glive g curObj -> adv (p_r s) r1 -> tget (p_tree s) curObj = Some co -> o_opcode co <> aml_pOpMethod ->
  TM (eq curObj) s g -> nota1 s g curObj -> res <> RShort ->
  FD (with_tree (with_r s r1) (tset (p_tree (with_r s r1)) curObj (set_value v))) g ->
  ObjPost curObj s g res (with_tree (with_r s r1) (tset (p_tree (with_r s r1)) curObj (set_value v))).
Proof.
  intros H Hl Hadv Hco Hnm HTM Hn1 Hrs H'. pose proof (fi_rok _ _ H) as Hrok.
  set (s' := with_tree (with_r s r1) (tset (p_tree (with_r s r1)) curObj (set_value v))) in *.
  assert (A : at_ s s' 0 0) by (apply at_tset; apply at_adv0; [apply at_refl; exact Hrok|exact Hadv]).
  pose proof (at_Psi _ _ _ _ A) as P.
  exists g. split; [exact H'|]. split; [eapply at_ExtD; [exact A|apply gext_refl]|].
  split.
  { apply (Fr_tset_value (eq curObj) (eq curObj) _ s g (with_r s r1) g curObj v); [|reflexivity].
    eapply Fr_tree_eq; [apply Fr_refl|reflexivity]. }
  split; [apply finsert_refl|]. split; [lia|]. split; [exact Hrs|].
  intros _. split; [lia|]. split; [|destruct A as (_ & _ & _ & _ & A5 & _); exact A5].
  intros m mo Hm Hop _.
  assert (Hmc : m <> curObj).
  { intros ->. unfold s' in Hm. pcbn_in Hm. rewrite get_tset, N.eqb_refl, Hco in Hm. cbn [option_map] in Hm.
    inversion Hm; subst mo. cbn [o_opcode set_value] in Hop. contradiction. }
  assert (Hm0 : tget (p_tree s) m = Some mo).
  { unfold s' in Hm. pcbn_in Hm. rewrite get_tset in Hm. apply N.eqb_neq in Hmc. rewrite Hmc in Hm. exact Hm. }
  destruct (HTM m mo Hm0 Hop (fun E => Hmc (eq_sym E))) as (a0 & a1 & rest & a0o & a1o & vv & Hk & Ha0 & Hn0 & Ha1 & Hv & Hn1' & Hmx).
  assert (Ha1c : a1 <> curObj) by (apply (Hn1 m mo a0 a1 rest Hm0 Hop Hk)).
  assert (Hget : forall i o, tget (p_tree s) i = Some o -> exists o', tget (p_tree s') i = Some o' /\ pnv o o' /\ (i <> curObj -> o' = o)).
  { intros i o Ho. unfold s'. pcbn. rewrite get_tset, Ho. cbn [option_map]. destruct (N.eqb_spec i curObj) as [->|Hne].
    - eexists. split; [reflexivity|]. split; [unfold pnv; cbn [set_value o_opcode o_infoIndex o_tableHandle o_name o_index o_amlOffset o_pkgEnd]; tauto|]. intros F; contradiction.
    - exists o. split; [reflexivity|]. split; [apply pnv_refl|auto]. }
  destruct (Hget a0 a0o Ha0) as (a0o' & Ha0' & E0 & _). destruct (Hget a1 a1o Ha1) as (a1o' & Ha1' & E1 & E1').
  rewrite (E1' Ha1c) in Ha1'.
  exists a0, a1, rest, a0o', a1o, vv. split; [exact Hk|]. split; [exact Ha0'|]. split; [eapply nodefer_pnv; eauto|].
  split; [exact Ha1'|]. split; [exact Hv|]. split; [exact Hn1'|]. apply (mx_pnv g g a0 a0o a0o' a1o a1o E0 (pnv_refl _) eq_refl Hmx).
Qed.

Lemma prefix_not_method op : op = aml_pOpBytePrefix \/ op = aml_pOpWordPrefix \/ op = aml_pOpDwordPrefix \/ op = aml_pOpQwordPrefix \/ op = aml_pOpStringPrefix ->
  op <> aml_pOpMethod.
Proof. intros [->|[->|[->|[->| ->]]]]; discriminate. Qed.

Lemma step_Dobjargs fuel : D_args tbls fuel -> D_objargs tbls (S fuel).
Proof.
  intros IHa curObj s g H I0 H0 Hl Hroom HTM Hmb Hflp Hn1.
  assert (K : wp True (parseObjectArgs (S fuel) curObj) s (ObjPost curObj s g)); [|exact K].
  cbn [parseObjectArgs]. pose proof (fi_rok _ _ H) as Hrok.
  destruct (FI_live_get _ _ _ H Hl) as (co & Hco & Hlco).
  apply wp_bind. apply wp_rdf. exists co. split; [exact Hco|].
  apply wp_bind, wp_get.
  (* the prefix objects *)
  assert (Hnum : forall k, o_opcode co <> aml_pOpMethod ->
     wp True (mlet '(v, ok) <~ lex (parseNumConstant k) ;; wrf curObj (set_value (Some (VNum v))) ;;; ret (pres_of_bool ok)) s
       (fun res s' => wp True (ret match res with RShort => ROk | r => r end) s' (ObjPost curObj s g))).
  { intros k Hnm. apply wp_bind. apply wp_num; [exact Hrok|]. intros v ok r1 Hadv _.
    assert (H1 : FD (with_r s r1) g) by (apply FI_adv; auto).
    wwrf H1 Hl. intros o2 Hg2 Hlo2 H2. apply wp_ret. apply wp_ret.
    apply (objargs_value curObj s g r1 (Some (VNum v)) co); auto. destruct ok; discriminate. }
  apply wp_bind.
  destruct (N.eqb_spec (o_opcode co) aml_pOpBytePrefix) as [E1|E1]; [apply Hnum; apply prefix_not_method; auto|].
  destruct (N.eqb_spec (o_opcode co) aml_pOpWordPrefix) as [E2|E2]; [apply Hnum; apply prefix_not_method; auto|].
  destruct (N.eqb_spec (o_opcode co) aml_pOpDwordPrefix) as [E3|E3]; [apply Hnum; apply prefix_not_method; auto 6|].
  destruct (N.eqb_spec (o_opcode co) aml_pOpQwordPrefix) as [E4|E4]; [apply Hnum; apply prefix_not_method; auto 6|].
  destruct (N.eqb_spec (o_opcode co) aml_pOpStringPrefix) as [E5|E5].
  { apply wp_bind. apply wp_string; [exact Hrok|]. intros v ok r1 Hadv _.
    assert (H1 : FD (with_r s r1) g) by (apply FI_adv; auto).
    wwrf H1 Hl. intros o2 Hg2 Hlo2 H2. apply wp_ret. apply wp_ret.
    apply (objargs_value curObj s g r1 _ co); auto; [apply prefix_not_method; auto 6|destruct ok; discriminate]. }
  (* the general case *)
  apply wp_bind. apply wp_rdf. exists co. split; [exact Hco|].
  pose proof (fi_info _ _ H _ _ Hco Hlco) as Hinfo.
  destruct (opInfo (o_infoIndex co)) as [[[op fl] af]|] eqn:Erow; [|contradiction].
  apply wp_bind. eapply wp_info; [exact Erow|].
  assert (Hhf : has_fl af <-> hasfl s curObj).
  { split.
    - intros Hf. exists co, op, fl, af. auto.
    - intros (co' & op' & fl' & af' & Hco' & Hrow' & Hf). assert (co' = co) by congruence. subst co'. rewrite Erow in Hrow'. inversion Hrow'; subst. exact Hf. }
  eapply wp_weaken; [apply (IHa (o_infoIndex co) op fl af curObj 0 s g H I0 H0 Hl Erow)| |].
  - lia.
  - destruct (cntu_01 af 0) as [E|E]; rewrite E; unfold roomD in *; lia.
  - intros Hf. apply Hflp. apply Hhf. exact Hf.
  - intros co' Hco'. congruence.
  - intros _ Hfl0. exfalso. destruct (fieldlist_after_bytedata _ _ _ _ 0 Erow) as (Hc & _); [lia|exact Hfl0|lia].
  - exact HTM.
  - intros co' Hco' Hop'. assert (co' = co) by congruence. subst co'.
    destruct (Hmb co Hco Hop') as [Ht|(Eii & Hk0)]; [left; exact Ht|right].
    destruct method_row as (_ & Er & _). rewrite Eii, Er in Erow. inversion Erow; subst. split; [reflexivity|]. left. split; [lia|exact Hk0].
  - auto.
  - intros res s' (g' & F1 & F2 & F3 & F4 & F5 & F6). apply wp_ret. exists g'. split; [exact F1|]. split; [exact F2|].
    split.
    { eapply Fr_weaken; [| | |exact F3]; auto.
      - intros i _ [].
      - intros y _ (Hf & Hin). split; [apply Hhf; exact Hf|exact Hin]. }
    split; [exact F4|]. split; [exact F5|]. split; [destruct res; discriminate|].
    intros Hr. assert (Hok : okres res) by (destruct res; try discriminate; [left|right]; reflexivity).
    destruct (F6 Hok) as (L1 & L2 & L3). split; [destruct (cntu_01 af 0) as [E|E]; rewrite E in L1; lia|]. split; [exact L2|exact L3].
Qed.

End StepO.
