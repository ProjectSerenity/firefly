(** C11 (fragments F1 .. F8): what the table loader of ParserFragTNTop.v needs about the tree [lay2] of a list of items of
    ParserFragF1.v: lengths and byte range of the encoding, nodes and size of the tree, the kind of every node and the
    local conditions of the later passes on such nodes ([f1_conds]).
    Everything is read off ParserFragF9Top.v (exported from here) through the embedding [emb].  The lemmas stated here
    about the items of ParserFragF1.v hide their namesakes of ParserFragF9Top.v for a file that imports this one; [f1_ok]
    is the same predicate in both files, [f1_okE] (here, no statement nodes) corresponds to [f9_okE] there, [f1_conds] to
    [f9_conds]. *)
From Coq Require Import NArith ZArith Arith List Bool Lia.
From FF Require Import Lib.Word Gen.Consts_device_acpi_aml Gen.Consts_aml_tree Aml.Stream Aml.Lex Aml.Tree Aml.TreeSpec Aml.Parser Aml.Grammar
  Aml.LexRoundtrip Aml.ParserTotalBase Aml.ParserFragBase Aml.ParserFragFirst Aml.ParserFragF0 Aml.ParserFragF0Conn Aml.ParserFragWalk
  Aml.ParserFragF0Top Aml.ParserFragRose Aml.ParserFragDev Aml.ParserFragArgs.
From FF Require Export Aml.ParserFragF9Top.
From FF Require Import Aml.ParserFragF1 Aml.ParserFragF1First Aml.ParserFragF1Conn.
Import ListNotations.
Local Open Scope N_scope.

(** ---- sizes against the length of the encoding ---- *)
Lemma enc_item_len it : (cfuel_item it <= 3 * length (enc_item it))%nat /\ (isz it <= length (enc_item it))%nat /\ (icnt it <= length (enc_item it))%nat.
Proof. rewrite <- cfuel_item_emb, <- enc_item_emb, <- isz_emb, <- icnt_emb. apply ParserFragF9Top.enc_item_len. Qed.

Lemma enc_items_len l : (cfuel l <= 3 * length (enc_items l))%nat /\ (iszs l <= length (enc_items l))%nat /\ (icnts l <= length (enc_items l))%nat.
Proof. rewrite <- cfuel_emb, <- enc_items_emb, <- iszs_emb, <- icnts_emb. apply ParserFragF9Top.enc_items_len. Qed.

Lemma enc_items_bytes : forall l, forallb item_okb l = true -> Forall (fun b => b < 256) (enc_items l).
Proof. intros l. rewrite <- items_okb_emb, <- enc_items_emb. apply ParserFragF9Top.enc_items_bytes. Qed.

Lemma lay2_nodes_all h tbl : forall l b off y, b <= y < b + N.of_nat (iszs l) -> In y (rnodesl (lay2 h tbl b off l)).
Proof. intros l b off y. rewrite <- iszs_emb, <- lay2_emb. apply ParserFragF9Top.lay2_nodes_all. Qed.

Lemma lay2_rsizes h tbl : forall l b off, rsizes (lay2 h tbl b off l) = iszs l.
Proof. intros l b off. rewrite <- iszs_emb, <- lay2_emb. apply ParserFragF9Top.lay2_rsizes. Qed.

(** ---- the kinds of nodes of the final tree ---- *)
Definition f1_ok (h tbl : N) (r : rose) : Prop :=
  match r with RN i a ks =>
    (exists nm, a = mkPay opScopeBlock 113 0 nm 0 0 None) \/
    (exists bk off nm p po rest, a = blk_pay h bk off nm /\ ks = RN p (pth_pay h tbl po) [] :: rest) \/
    (exists off w v, a = num_pay h w off v /\ ks = []) \/
    (exists off, a = sb_pay h off) \/
    (exists off, a = pth_pay h tbl off /\ ks = []) \/
    (exists off nm p po c co d, a = nam_pay h off nm /\ ks = [RN p (pth_pay h tbl po) []; RN c (cst_pay h co d) []] /\ is_constb (d_op d) = true) \/
    (exists off d, a = cst_pay h off d /\ is_constb (d_op d) = true /\ ks = []) \/
    (exists lk off nm p po rest, a = lf_pay h lk off nm /\ ks = RN p (pth_pay h tbl po) [] :: rest) \/
    (exists off b, a = str_pay h tbl off b /\ ks = []) \/
    (exists off nm p po rest, a = nam_pay h off nm /\ ks = RN p (pth_pay h tbl po) [] :: rest) \/
    (exists off, a = pkg_pay h off)
  end.
(** for the objects of some table *)
Definition f1_okE (r : rose) : Prop := exists h tbl, f1_ok h tbl r.

Lemma stmt_free_emb l : forallb stmt_free (map emb l) = true.
Proof.
  apply forallb_forall. intros y Hy. apply in_map_iff in Hy. destruct Hy as (x & <- & _).
  induction x as [d|bk k seg fa body IH|lk seg fa ta|seg k n elems] using item_ind'; cbn [emb stmt_free]; try reflexivity.
  apply forallb_forall. intros y Hy. apply in_map_iff in Hy. destruct Hy as (x & <- & Hx). rewrite Forall_forall in IH. exact (IH x Hx).
Qed.

Lemma lay2_okh h tbl : forall l b off, forallb item_okb l = true -> Forall (rallr (f1_ok h tbl)) (lay2 h tbl b off l).
Proof.
  intros l b off Hok. rewrite <- lay2_emb. apply (lay2_okP (f1_ok h tbl) h tbl (fun r Hr => Hr)).
  - rewrite stmt_free_emb. discriminate.
  - rewrite items_okb_emb. exact Hok.
Qed.

Lemma lay2_ok h tbl : forall l b off, forallb item_okb l = true -> Forall (rallr f1_okE) (lay2 h tbl b off l).
Proof.
  intros l b off Hok. eapply Forall_impl; [|apply lay2_okh; exact Hok].
  apply rallr_mono. intros r Hr. exists h, tbl. exact Hr.
Qed.

(** ---- the local conditions of the walks, for every node kind ---- *)
Lemma f1_conds (t : T) g pl R0 (H0 : N) : Rep t g pl -> Desc g pl R0 -> rallr f1_okE R0 ->
  (forall y a, pget pl y = Some a -> y_op a <> opFreed -> In y (rnodes R0)) ->
  forall y a, pget pl y = Some a -> y_op a <> opFreed ->
  merge_ok H0 a /\ defer_ok H0 a /\ reloc_ok g pl H0 y a /\ nonnamed_ok g H0 y a /\ calls_ok g H0 y a.
Proof.
  intros H HD Hok Hall y a Hy Hly. apply (f5_conds t g pl R0 H0 H HD); [|exact (Hall y a Hy Hly)|exact Hy|exact Hly].
  revert Hok. apply rallr_mono. intros r (h & tbl & Hr). exists h, tbl. left. exact Hr.
Qed.

Lemma dflt_okE i nm ks : f1_okE (RN i (mkPay opScopeBlock 113 0 nm 0 0 None) ks).
Proof. exists 0, 0. cbn [f1_ok]. left. eexists. reflexivity. Qed.
