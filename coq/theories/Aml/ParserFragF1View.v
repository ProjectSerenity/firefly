(** C11 (fragments F1 .. F8): the namespace view of a forest [lay2] of items of ParserFragF1.v lists, for every block,
    the entries of its body and then the block itself ([vspec_all], used by the view of the loaded tables in
    ParserFragF3View.v); the specification lists the block first, a permutation ([ventries_perm]).
    [vspec_all] is read off ParserFragF9View.v through the embedding [emb] (no statements: nothing is rendered into a
    Method's entry, no anonymous entries). *)
From Coq Require Import NArith ZArith Arith List Bool Lia Permutation.
From FF Require Import Lib.Word Gen.Consts_device_acpi_aml Gen.Consts_aml_tree Aml.Stream Aml.Lex
  Aml.Tree Aml.TreeSpec Aml.TreeProofs Aml.Parser Aml.Grammar Aml.LexRoundtrip
  Aml.ParserTotalBase Aml.ParserFragBase Aml.ParserFragFirst Aml.ParserFragF0 Aml.ParserFragF0Conn Aml.ParserFragF0Top
  Aml.ParserFragRose Aml.ParserFragDev Aml.ParserFragArgs Aml.ParserFragF1 Aml.ParserFragF1First Aml.ParserFragF1Conn Aml.ParserFragF1Top
  Aml.View Aml.ParserFragView.
From FF Require Aml.ParserFragF9View.
Import ListNotations.
Local Open Scope N_scope.

Definition name_entry (p : path) (d : decl) : list N :=
  [1] ++ tok_path (p ++ [d_seg d]) ++ [aml_pOpName] ++ const_tokens (d_op d) (const_val (d_op d) (d_v d)).
Definition blk_entry (p : path) (bk : bkind) (l : fxs) : list N :=
  [1] ++ tok_path p ++ [bk_op bk] ++ flat_map (fun '(w, v) => tok_const (fw_op w) v) l.
Definition cst_tokens (d : decl) : list N := const_tokens (d_op d) (const_val (d_op d) (d_v d)).
Definition targ_tokens (a : targ) : list N := match a with TInt d => cst_tokens d | TStr b => tok_bytes OP_STRING b end.
Definition leaf_entry (p : path) (lk : lkind) (l : fxs) (ta : list targ) : list N :=
  [1] ++ tok_path p ++ [lk_op lk] ++ flat_map (fun '(w, v) => tok_const (fw_op w) v) l ++ flat_map targ_tokens ta.
Fixpoint pel_tokens (e : pel) : list N :=
  match e with
  | PLeaf a => targ_tokens a
  | PSub _ n es => [OP_PACKAGE; 0; 1 + lenN es] ++ tok_const OP_BYTE n ++ flat_map pel_tokens es
  end.
Definition pkg_entry (p : path) (n : N) (elems : list pel) : list N :=
  [1] ++ tok_path p ++ [aml_pOpName] ++ [OP_PACKAGE; 0; 1 + lenN elems] ++ tok_const OP_BYTE n ++ flat_map pel_tokens elems.
Definition dev_entry (p : path) : list N := blk_entry p BDev [].
Definition meth_entry (p : path) (fl : N) : list N := blk_entry p BMeth [(W1, fl)].

(** the view lists the body of a block before the block *)
Fixpoint ventry (p : path) (it : item) : list (list N) :=
  match it with
  | IName d => [name_entry p d]
  | IBlk bk _ seg fa body => flat_map (ventry (p ++ [seg])) body ++ [blk_entry (p ++ [seg]) bk (bfx bk fa)]
  | ILeaf lk seg fa ta => [leaf_entry (p ++ [seg]) lk (lfx lk fa) ta]
  | IPkg seg _ n elems => [pkg_entry (p ++ [seg]) n elems]
  end.
Definition ventries (p : path) (l : list item) : list (list N) := flat_map (ventry p) l.

(** the specification lists the block first *)
Fixpoint sentry (p : path) (it : item) : list (list N) :=
  match it with
  | IName d => [name_entry p d]
  | IBlk bk _ seg fa body => blk_entry (p ++ [seg]) bk (bfx bk fa) :: flat_map (sentry (p ++ [seg])) body
  | ILeaf lk seg fa ta => [leaf_entry (p ++ [seg]) lk (lfx lk fa) ta]
  | IPkg seg _ n elems => [pkg_entry (p ++ [seg]) n elems]
  end.
Definition sentries (p : path) (l : list item) : list (list N) := flat_map (sentry p) l.

Lemma perm_flat_map {A B} (f f' : A -> list B) l :
  Forall (fun x => Permutation (f x) (f' x)) l -> Permutation (flat_map f l) (flat_map f' l).
Proof. induction 1; cbn [flat_map]; [constructor|apply Permutation_app; assumption]. Qed.

Lemma ventry_perm it : forall p, Permutation (ventry p it) (sentry p it).
Proof.
  induction it as [d|bk k seg fa body IH|lk seg fa ta|seg k n elems] using item_ind'; intros p; cbn [ventry sentry]; try apply Permutation_refl.
  eapply Permutation_trans; [apply Permutation_app_comm|]. cbn [app]. constructor. apply perm_flat_map.
  revert IH. apply Forall_impl. auto.
Qed.

Lemma ventries_perm : forall l p, Permutation (ventries p l) (sentries p l).
Proof. intros l p. apply perm_flat_map, all_Forall. intros x. apply ventry_perm. Qed.

Lemma targ_tokens_emb a : ParserFragF9View.targ_tokens (emb_targ a) = targ_tokens a.
Proof. destruct a; reflexivity. Qed.
Lemma pel_tokens_emb e : ParserFragF9View.pel_tokens (emb_pel e) = pel_tokens e.
Proof.
  induction e as [a|k n es IH] using pel_ind'; cbn [emb_pel ParserFragF9View.pel_tokens pel_tokens]; [apply targ_tokens_emb|].
  unfold lenN. rewrite map_length, (flat_map_emb _ _ _ _ IH). reflexivity.
Qed.
Lemma vstmts_emb l : ParserFragF9View.vstmts (map emb l) = [].
Proof. induction l as [|[d|bk k seg fa body|lk seg fa ta|seg k n elems] r IH]; [reflexivity| | | |]; exact IH. Qed.
Lemma ventry_emb it : forall p, ParserFragF9View.ventry p (emb it) = ventry p it.
Proof.
  induction it as [d|bk k seg fa body IH|lk seg fa ta|seg k n elems] using item_ind'; intros p; cbn [emb ParserFragF9View.ventry ventry]; [reflexivity| | |].
  - change (flat_map ParserFragF9View.stmt_of (map emb body)) with (ParserFragF9View.vstmts (map emb body)). rewrite vstmts_emb.
    rewrite (flat_map_emb emb _ (ventry (p ++ [seg])) body) by (revert IH; apply Forall_impl; auto).
    destruct (bk_op bk =? aml_pOpMethod); cbn [anon map concat app]; rewrite app_nil_r; reflexivity.
  - unfold ParserFragF9View.leaf_entry, leaf_entry. rewrite (flat_map_emb _ _ _ _ (all_Forall _ ta targ_tokens_emb)). reflexivity.
  - unfold ParserFragF9View.pkg_entry, pkg_entry, lenN. rewrite map_length, (flat_map_emb _ _ _ _ (all_Forall _ elems pel_tokens_emb)). reflexivity.
Qed.
Lemma ventries_emb p l : ParserFragF9View.ventries p (map emb l) = ventries p l.
Proof. apply flat_map_emb, all_Forall. intros x. apply ventry_emb. Qed.

Section ViewF1.
Variable t : T.
Variable g : ghost.
Variable pl : list pay.
Hypothesis H : Rep t g pl.
Variable tables : list (list N).

Definition VSpec (its : list item) : Prop := forall vh vtbl f known p es st b off data dpre dpost,
  nth_error tables (N.to_nat vtbl) = Some data -> data = dpre ++ enc_items its ++ dpost -> off = lenN dpre ->
  Forall (Desc g pl) (lay2 vh vtbl b off its) -> forallb item_okb its = true -> (iszs its < f)%nat ->
  fold_left (walkF t tables f known p) (map ridx (lay2 vh vtbl b off its)) (es, st) = (es ++ ventries p its, st).

Lemma vspec_all : forall its, VSpec its.
Proof.
  intros its vh vtbl f known p es st b off data dpre dpost Hnth Hdata Hoff HD Hok Hf.
  rewrite <- lay5_emb in HD |- *.
  rewrite (ParserFragF9View.vspec_all t g pl H tables (map emb its) vh vtbl f known p es st b off data dpre dpost Hnth);
    rewrite ?enc_items_emb, ?items_okb_emb, ?iszs_emb; try assumption.
  rewrite vstmts_emb, ventries_emb, app_nil_r. reflexivity.
Qed.

End ViewF1.
