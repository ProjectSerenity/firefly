(** C11 (fragment F7): the recogniser [in_fragment_F7] of the fragment F6 extended by Name declarations whose value is a package of constants, its soundness [f7_item_ast],
    and [parse_encode_F7], the instance of [parse_encode_one] (ParserFragF3Final.v) for it.

    F7 = F6 + Name(SEG, Package(n){e1, ..., em}) where every element is an integer constant (Zero / One / Ones /
    Byte- / Word- / DWord- / QWordPrefix) or a string, anywhere an item of F6 may stand (m may be smaller than n, as ACPI allows).
    Productions added to F6: DataRefObject = DefPackage (PackageOp PkgLength NumElements PackageElementList) with
    PackageElement = DataRefObject restricted to integer constants and strings.
    The package is parsed in the first pass as an object of its own with two arguments (the element count and a
    scope block holding the elements); connectNamedObjArgs attaches the whole subtree to the Name. *)
From Coq Require Import NArith List Bool.
From FF Require Import Aml.Grammar Aml.WfProgram Aml.ParserFragF0 Aml.ParserFragArgs Aml.ParserFragF1
  Aml.ParserFragF0Final Aml.ParserFragF1Final Aml.ParserFragScope Aml.ParserFragF3Final.
Import ListNotations.
Local Open Scope N_scope.

Definition targ_of (a : ast) : option targ :=
  match a with AConst op v => Some (TInt (mkDecl 0 op v)) | AStr b => Some (TStr b) | _ => None end.
Fixpoint targs_of (l : list ast) : option (list targ) :=
  match l with
  | [] => Some []
  | x :: t => match targ_of x, targs_of t with Some i, Some r => Some (i :: r) | _, _ => None end
  end.

Lemma pel_ast_leaves ta : map pel_ast (map PLeaf ta) = map targ_ast ta.
Proof. rewrite map_map. reflexivity. Qed.

Lemma targs_of_ast l ta : targs_of l = Some ta -> l = map targ_ast ta.
Proof.
  intros H. apply (omap_sound targ_of targ_ast (fun _ => true) l ta); [|exact H].
  intros a _ b Ea. split; [|reflexivity]. destruct a; try discriminate; inversion Ea; reflexivity.
Qed.

Fixpoint f7_item (a : ast) : option item :=
  let go := fix go (l : list ast) : option (list item) :=
              match l with
              | [] => Some []
              | x :: t => match f7_item x, go t with Some i, Some r => Some (i :: r) | _, _ => None end
              end in
  let blk (bk : bkind) (k : N) (nm : namestr) (fa : list N) (body : list ast) : option item :=
      match simple_name nm, go body with
      | Some seg, Some b => Some (IBlk bk k seg fa b)
      | _, _ => None
      end in
  match a with
  | AName nm (AConst op v) => match simple_name nm with Some seg => Some (IName (mkDecl seg op v)) | None => None end
  | AName nm (AStr b) => match simple_name nm with Some seg => Some (ILeaf LName seg [] [TStr b]) | None => None end
  | AName nm (APackage k n elems) =>
      match simple_name nm, targs_of elems with Some seg, Some ta => Some (IPkg seg k n (map PLeaf ta)) | _, _ => None end
  | ADevice k nm body => blk BDev k nm [] body
  | AThermal k nm body => blk BTZ k nm [] body
  | AProcessor k nm id addr len body => blk BProc k nm [id; addr; len] body
  | APowerRes k nm level order body => blk BPwr k nm [level; order] body
  | AMethod k nm fl body => blk BMeth k nm [fl] body
  | AMutex nm sync => match simple_name nm with Some seg => Some (ILeaf LMutex seg [sync] []) | None => None end
  | AEvent nm => match simple_name nm with Some seg => Some (ILeaf LEvent seg [] []) | None => None end
  | AOpRegion nm space (AConst op1 v1) (AConst op2 v2) =>
      match simple_name nm with Some seg => Some (ILeaf LOpReg seg [space] [TInt (mkDecl 0 op1 v1); TInt (mkDecl 0 op2 v2)]) | None => None end
  | _ => None
  end.

Fixpoint f7_items (l : list ast) : option (list item) :=
  match l with
  | [] => Some []
  | x :: t => match f7_item x, f7_items t with Some i, Some r => Some (i :: r) | _, _ => None end
  end.

Definition f7_titem (a : ast) : option titem :=
  match a with
  | AScope k nm body =>
      match scope_target nm, f7_items body with
      | Some (root, d), Some b => Some (TScope k root d b)
      | _, _ => None
      end
  | _ => match f7_item a with Some it => Some (TItem it) | None => None end
  end.

Fixpoint f7_titems (l : list ast) : option (list titem) :=
  match l with
  | [] => Some []
  | x :: t => match f7_titem x, f7_titems t with Some i, Some r => Some (i :: r) | _, _ => None end
  end.

Definition in_fragment_F7 (tables : list (list ast)) : bool :=
  match tables with
  | [p] => match f7_titems p with Some _ => lenN (encode_table p) <? 0x10000000 | None => false end
  | _ => false
  end.

Lemma f7_item_ast : forall a, sound f7_item a.
Proof.
  induction a as [a IH] using ast_body_ind. intros it.
  destruct a as [ | | | | | | | | | | | | | k nm body | k nm body | k nm id addr len body | k nm level order body | k nm fl body | nm v | nm space off len | | | | nm sync | nm ]; try discriminate; cbn [f7_item body_of] in *.
  1-5: apply (blk_sound f7_item); [reflexivity|exact IH].
  - destruct v; try discriminate; try (intros E; destruct (name_sound _ _ _ E) as (seg & -> & ->); split; reflexivity).
    destruct (simple_name nm) as [seg|] eqn:En; [|discriminate]. apply simple_name_eq in En. subst nm.
    destruct (targs_of elems) as [ta|] eqn:Eta; [apply targs_of_ast in Eta; subst elems|discriminate].
    intros E; inversion E. cbn [item_ast]. rewrite pel_ast_leaves. split; reflexivity.
  - destruct off; try discriminate. destruct len; try discriminate. intros E; destruct (name_sound _ _ _ E) as (seg & -> & ->); split; reflexivity.
  - intros E; destruct (name_sound _ _ _ E) as (seg & -> & ->); split; reflexivity.
  - intros E; destruct (name_sound _ _ _ E) as (seg & -> & ->); split; reflexivity.
Qed.

Theorem parse_encode_F7 : forall tables,
  wf_program tables = true -> in_fragment_F7 tables = true -> parse_encode_statement tables.
Proof. exact (parse_encode_one f7_item f7_item_ast). Qed.
