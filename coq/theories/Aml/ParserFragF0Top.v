(** C11 (fragments): the default scopes ParseAML starts from, the table image, and the passes of ParseAML after
    connectNamedObjArgs as one computation. *)
From Coq Require Import NArith ZArith Arith List Bool Lia.
From Coq Require Import ZifyBool ZifyN ZifyNat.
From FF Require Import Lib.Word Gen.Consts_device_acpi_aml Gen.Consts_aml_tree Aml.Stream Aml.Lex Aml.LexProofs
  Aml.Tree Aml.TreeSpec Aml.TreeProofs Aml.TreeProofsOps Aml.TreeProofsFind Aml.Parser Aml.Grammar Aml.LexRoundtrip
  Aml.ParserTotalTree Aml.ParserTotalTree2 Aml.ParserTotalLex Aml.ParserTotalTable Aml.ParserTotalBase
  Aml.ParserFragBase Aml.ParserFragFirst Aml.ParserFragF0 Aml.ParserFragConn Aml.ParserFragF0Conn
  Aml.ParserFragWalk.
Import ListNotations.
Local Open Scope N_scope.

(** ---- the default scopes ---- *)
Fixpoint g_scopes (g : ghost) (root : N) (k : nat) : ghost :=
  match k with O => g | S k' => g_scopes (g_head g root) root k' end.

Definition scope_pay (th : N) (nm : list N) : pay := mkPay opScopeBlock 113 th (name_of_list nm) 0 0 None.

Lemma newNamed_rep (t : T) g pl th nm :
  Rep t g pl -> g_free g = [] -> N.of_nat (length pl) < InvalidIndex ->
  exists t', newNamedObject t opScopeBlock th nm = Ok (t', N.of_nat (length pl)) /\
             Rep t' (gnew g) (pl ++ [mkPay opScopeBlock 113 th nm 0 0 None]).
Proof.
  intros H Hf Hroom.
  destruct (rep_new t g pl opScopeBlock th 113 H Hf Hroom) as (t1 & E1 & H1); [discriminate|right; cbv; reflexivity|reflexivity|].
  unfold newNamedObject. rewrite E1. cbn [bind].
  assert (Hg : pget (pl ++ [mkPay opScopeBlock 113 th name_zero 0 0 None]) (N.of_nat (length pl)) = Some (mkPay opScopeBlock 113 th name_zero 0 0 None))
    by apply pget_app_last.
  destruct (rep_get _ _ _ H1 _ _ Hg) as (o & Ho & _).
  rewrite (wr_ok _ _ _ _ Ho). cbn [bind]. eexists. split; [reflexivity|].
  pose proof (rep_tset t1 _ _ _ _ (set_name nm) (ys_name nm) H1 Hg ltac:(discriminate) (proj1 (st_name nm)) (proj2 (st_name nm))) as H2.
  rewrite pupd_app_last in H2. exact H2.
Qed.

Lemma append_scopes_rep th names : forall (t : T) g pl root ar,
  Rep t g pl -> g_free g = [] -> pget pl root = Some ar -> y_op ar <> opFreed ->
  N.of_nat (length pl) + N.of_nat (length names) < InvalidIndex ->
  exists t', append_scopes t root th names = Ok t' /\
             Rep t' (g_scopes g root (length names)) (pl ++ map (scope_pay th) names).
Proof.
  induction names as [|nm names IH]; intros t g pl root ar H Hf Hr Hlr Hroom; cbn [append_scopes length g_scopes map].
  - exists t. rewrite app_nil_r. auto.
  - destruct (newNamed_rep t g pl th (name_of_list nm) H Hf ltac:(cbn [length] in Hroom; lia)) as (t1 & E1 & H1).
    rewrite E1. cbn [bind].
    pose proof (rep_len_g _ _ _ H) as Hlg.
    assert (Hrlt : root < N.of_nat (length pl)) by (eapply pget_lt; eauto).
    assert (Hlive_r : glive g root) by (eapply rep_live; eauto).
    destruct (rep_append t1 (gnew g) _ root (N.of_nat (length pl)) H1) as (t2 & E2 & H2).
    { apply glive_gnew; assumption. }
    { rewrite <- Hlg. apply glive_gnew_new. }
    { rewrite <- Hlg. eapply groot_fresh. apply (rep_R _ _ _ H). }
    { intros Hd. apply desc_leaf in Hd; [lia|]. rewrite kids_gnew. apply kids_oob. lia. }
    rewrite E2. cbn [bind]. rewrite kids_gnew in H2.
    assert (H2' : Rep t2 (g_head g root) (pl ++ [scope_pay th nm])).
    { unfold g_head. rewrite Hlg. exact H2. }
    destruct (IH t2 (g_head g root) (pl ++ [scope_pay th nm]) root ar H2' eq_refl) as (t3 & E3 & H3).
    { rewrite pget_app_l by exact Hrlt. exact Hr. }
    { exact Hlr. }
    { rewrite app_length. cbn [length] in *. lia. }
    exists t3. split; [exact E3|]. rewrite <- app_assoc in H3. exact H3.
Qed.

Definition g0c : ghost := mkGhost [[1; 2; 3; 4; 5]; []; []; []; []; []] [].
Definition pl0c : list pay := map (scope_pay 0) tree_defaultScopeNames.

Lemma default_rep : exists t0, CreateDefaultScopes (@NewObjectTree value) 0 = Ok t0 /\ Rep t0 g0c pl0c.
Proof.
  unfold CreateDefaultScopes. change tree_defaultScopeNames with ([92; 0; 0; 0] :: tl tree_defaultScopeNames).
  assert (H0 : Rep (@NewObjectTree value) ghost0 []) by (split; [apply R_empty|reflexivity]).
  destruct (newNamed_rep _ _ _ 0 (name_of_list [92; 0; 0; 0]) H0 eq_refl ltac:(cbv; reflexivity)) as (t1 & E1 & H1).
  cbv iota. rewrite E1. cbn [bind].
  destruct (append_scopes_rep 0 (tl tree_defaultScopeNames) t1 _ _ 0 _ H1 eq_refl eq_refl ltac:(discriminate) ltac:(cbv; reflexivity)) as (t2 & E2 & H2).
  exists t2. split; [exact E2|]. exact H2.
Qed.

(** ---- the table image ---- *)
Definition hdr_of (payload : list N) : list N :=
  [0x44; 0x53; 0x44; 0x54] ++ Parser.le_bytes 4 (aml_sizeofSDTHeader + N.of_nat (length payload)) ++ [2] ++ repeat 0 (N.to_nat aml_sizeofSDTHeader - 9).

Lemma table_image_hdr payload : table_image payload = hdr_of payload ++ payload.
Proof. unfold table_image, hdr_of. rewrite <- !app_assoc. reflexivity. Qed.

Lemma lenN_hdr_of payload : lenN (hdr_of payload) = aml_sizeofSDTHeader.
Proof. reflexivity. Qed.

Lemma hdr_bytes payload : Forall (fun b => b < 256) (hdr_of payload).
Proof.
  unfold hdr_of. cbn [Parser.le_bytes]. change (N.to_nat aml_sizeofSDTHeader - 9)%nat with 27%nat. cbn [repeat app].
  repeat (constructor; [first [apply land255_lt|reflexivity]|]). constructor.
Qed.

Lemma gle_bytes_lt k : forall v, Forall (fun b => b < 256) (Grammar.le_bytes k v).
Proof. induction k as [|k IH]; intros v; cbn [Grammar.le_bytes]; constructor; [apply land255_lt|apply IH]. Qed.

Lemma enc_decl_bytes d : decl_okb d = true -> Forall (fun b => b < 256) (enc_decl d).
Proof.
  intros Hd. unfold decl_okb in Hd. apply andb_prop in Hd. destruct Hd as [Hd _]. apply andb_prop in Hd. destruct Hd as [_ Hc].
  unfold enc_decl, enc_const. constructor; [reflexivity|]. apply Forall_app. split.
  - unfold seg_bytes. repeat (constructor; [apply land255_lt|]). constructor.
  - apply Forall_app. split; [|apply gle_bytes_lt].
    destruct (is_constb_cases _ Hc) as [E|[E|[E|[E|[E|[E|E]]]]]]; rewrite E; repeat constructor.
Qed.

(** ---- the bytes of the name paths ---- *)
Lemma take_bytes_app a b c : take_bytes (a ++ b ++ c) (length a) (length b) = Some b.
Proof.
  revert a. induction b as [|x b IH]; intros a; cbn [take_bytes length]; [reflexivity|].
  rewrite nth_error_app2 by lia. rewrite Nat.sub_diag. cbn [app nth_error].
  specialize (IH (a ++ [x])). rewrite <- app_assoc in IH. cbn [app] in IH.
  rewrite app_length in IH. cbn [length] in IH. replace (length a + 1)%nat with (S (length a)) in IH by lia. rewrite IH. reflexivity.
Qed.

Definition D0 : list N := [1; 2; 3; 4; 5].

Lemma D0_facts : forall d, In d D0 -> d < N.of_nat 6 /\ d <> 0 /\
  exists a row, pget pl0c d = Some a /\ y_op a <> opFreed /\ opInfo (y_info a) = Some row.
Proof.
  intros d Hd. unfold D0 in Hd. cbn [In] in Hd.
  destruct Hd as [ <- | [ <- | [ <- | [ <- | [ <- | [] ] ] ] ] ]; (split; [reflexivity|split; [discriminate|eexists; eexists; split; [reflexivity|split; [discriminate|reflexivity]]]]).
Qed.

Lemma Nn_not_Inv (t : T) g pl y a : Rep t g pl -> pget pl y = Some a -> (y =? InvalidIndex) = false.
Proof. apply rep_not_Inv. Qed.

(** ---- connectNamedObjArgs: the children that were there before ---- *)
Lemma conn_leaves : forall D1 f obj D2 s g pl (Q : pres -> pstate -> Prop),
  Rep (p_tree s) g pl -> kids g obj = D1 ++ D2 ->
  (forall d, In d D1 -> kids g d = [] /\ exists a row, pget pl d = Some a /\ y_op a <> opFreed /\ opInfo (y_info a) = Some row) ->
  Q ROk s ->
  wp False (connectNamed_loop (length D1 + S (S f)) obj (last D1 InvalidIndex)) s Q.
Proof.
  induction D1 as [|x D1 IH] using rev_ind; intros f obj D2 s g pl Q H Hk Hall K.
  - cbn [length last Nat.add]. rewrite connectNamed_loop_S, N.eqb_refl. apply wp_ret. exact K.
  - rewrite app_length. cbn [length]. replace (length D1 + 1 + S (S f))%nat with (S (S (S (length D1 + f))))%nat by lia.
    rewrite last_last. destruct (Hall x) as (Hkx & a & row & Ha & Hl & Hrow); [apply in_or_app; right; left; reflexivity|].
    rewrite <- app_assoc in Hk. cbn [app] in Hk.
    eapply (CNloop_leaf _ obj x D1 D2 a row); [exact H|exact Hk|exact Ha|exact Hl|exact Hkx|exact Hrow|].
    replace (S (S (length D1 + f)))%nat with (length D1 + S (S f))%nat by lia.
    eapply IH; [exact H|exact Hk| |exact K]. intros d Hd. apply Hall. apply in_or_app. left. exact Hd.
Qed.

Lemma bindM_assoc {A B C} (m : M A) (f : A -> M B) (k : B -> M C) s :
  bindM (bindM m f) k s = bindM m (fun a => bindM (f a) k) s.
Proof. unfold bindM. destruct (m s) as [[a s1]| |]; reflexivity. Qed.

Lemma wp_assoc {A B C} P (m : M A) (f : A -> M B) (k : B -> M C) s Q :
  wp P (bindM (bindM m f) k) s Q -> wp P (bindM m (fun a => bindM (f a) k)) s Q.
Proof. unfold wp. rewrite bindM_assoc. auto. Qed.

Lemma resolve_loop_S f wf : resolve_loop (S f) wf =
  (mlet mergeRes <~ mergeScopeDirectives wf 0 ;;
   if pres_eqb mergeRes RFailed then ret RFailed else
   mlet relocateRes <~ relocateNamedObjects wf 0 ;;
   if pres_eqb relocateRes RFailed then ret RFailed else
   if pres_eqb mergeRes ROk && pres_eqb relocateRes ROk then ret ROk else
   (fun s => Ok (tt, with_counters s (w32 (p_resolvePasses s + 1)) (p_mergedScopes s) (p_relocatedObjects s))) ;;;
   resolve_loop f wf).
Proof. reflexivity. Qed.

Lemma kids_g0c i : i <> 0 -> kids g0c i = [].
Proof.
  intros Hi. unfold kids, g0c. cbn [g_kids]. destruct (N.to_nat i) as [|[|[|[|[|[|k]]]]]] eqn:E; try reflexivity; [lia|].
  destruct k; reflexivity.
Qed.

Definition rest_passes (fuel : nat) : M bool :=
  (fun s => Ok (tt, with_counters s 1 (p_mergedScopes s) (p_relocatedObjects s))) ;;;
  mlet r3 <~ resolve_loop fuel fuel ;;
  if negb (pres_eqb r3 ROk) then ret false else
  mlet r4 <~ parseDeferredBlocks fuel fuel 0 ;;
  if negb (pres_eqb r4 ROk) then ret false else
  mlet r5 <~ resolveMethodCalls fuel 0 ;;
  if negb (pres_eqb r5 ROk) then ret false else
  mlet r6 <~ connectNonNamedObjArgs fuel 0 ;;
  if negb (pres_eqb r6 ROk) then ret false else
  ret true.

(** ---- ParseAML ---- *)
Lemma parseAML_body_eq fuel s : parseAML_body fuel s =
  (mlet r1 <~ first_pass fuel ;;
   if pres_eqb r1 RFailed then ret false else
   mlet r2 <~ connectNamedObjArgs fuel 0 ;;
   if negb (pres_eqb r2 ROk) then ret false else rest_passes fuel) s.
Proof. unfold parseAML_body, first_pass. rewrite bindM_assoc. reflexivity. Qed.

