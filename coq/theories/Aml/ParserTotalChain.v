(** The passes of ParseAML after connectNamedObjArgs chained - the resolve loop, parseDeferredBlocks,
    resolveMethodCalls, connectNonNamedObjArgs never panic from a state that satisfies the invariants of the resolve loop,
    [TM2] (ParserTotalShape.v) and [PEND], and re-establish an abstract invariant of the tree ([tail_post], [rest_post]); the count of pending objects
    the walk needs exists (induction over the forest) and is bounded by the pool; the resolve passes touch neither the reader nor
    the stacks nor the size of the pool ([quiet]). *)
From Coq Require Import NArith Arith List Bool Lia.
From Coq Require Import ZifyBool ZifyN ZifyNat.
From FF Require Import Lib.Word Gen.Consts_device_acpi_aml Gen.Consts_aml_tree Aml.Stream Aml.Lex Aml.LexProofs
  Aml.Tree Aml.Parser Aml.ParserProofs Aml.TreeSpec Aml.TreeProofs Aml.TreeProofsOps Aml.TreeProofsFind Aml.TreeProofsAnc
  Aml.ParserTotalTree Aml.ParserTotalTree2 Aml.ParserTotalRuns Aml.ParserTotalLex Aml.ParserTotalTable Aml.ParserTotalBase Aml.ParserTotalLeaf
  Aml.ParserTotalFrame Aml.ParserTotalFirst Aml.ParserTotalConn Aml.ParserTotalNonNamed Aml.ParserTotalCalls Aml.ParserTotalReloc
  Aml.ParserTotalMerge Aml.ParserTotalResolve Aml.ParserTotalDefer Aml.ParserTotalDeferW Aml.ParserTotalDeferM Aml.ParserTotalDeferV
  Aml.ParserTotalTyped Aml.ParserTotalShape.
Import ListNotations.
Local Open Scope N_scope.

(** ---- induction over the forest ---- *)
Section Forest.
Context (t : T) (g : ghost) (HR : R t g).

Lemma forest_ind (P : N -> Prop) :
  (forall x, glive g x -> (forall c, In c (kids g x) -> P c) -> P x) -> forall x, glive g x -> P x.
Proof.
  intros H.
  assert (Hn : forall n x k, Depth t x k -> (length (t_pool t) - k <= n)%nat -> glive g x -> P x).
  { induction n as [|n IH]; intros x k Hd Hle Hl.
    - pose proof (Depth_bound t x k Hd). lia.
    - apply H; [exact Hl|]. intros c Hc. apply (IH c (S k)).
      + eapply child_depth; eauto.
      + lia.
      + apply ((R_gwf _ _ HR) _ _ Hc). }
  intros x Hl. destruct (live_depth _ _ HR x Hl) as (k & Hd). apply (Hn _ x k Hd (Nat.le_refl _) Hl).
Qed.

(** the ancestors of an object form a chain *)
Lemma desc_chain a b y : desc g a y -> desc g b y -> desc g a b \/ desc g b a.
Proof.
  intros Ha. revert b. induction Ha as [|p c Ha IH Hin]; intros b Hb.
  - right. exact Hb.
  - inversion Hb as [|p' c' Hb' Hin']; subst.
    + left. eapply desc_step; eauto.
    + assert (p' = p) by (eapply (R_parent_unique _ _ HR); eauto). subst p'. apply IH. exact Hb'.
Qed.

Lemma siblings_disjoint p a b y : In a (kids g p) -> In b (kids g p) -> desc g a y -> desc g b y -> a = b.
Proof.
  intros Ha Hb Da Db. destruct (desc_chain a b y Da Db) as [D|D].
  - symmetry. eapply (sibling_not_desc _ _ HR); eauto.
  - eapply (sibling_not_desc _ _ HR); [exact Hb|exact Ha|exact D].
Qed.
End Forest.

Lemma NoDup_app_intro (l1 l2 : list N) : NoDup l1 -> NoDup l2 -> (forall y, In y l1 -> In y l2 -> False) -> NoDup (l1 ++ l2).
Proof.
  induction l1 as [|a l1 IH]; intros H1 H2 Hd; [exact H2|]. cbn [app]. apply NoDup_cons_iff in H1. destruct H1 as (Ha & H1).
  constructor.
  - intros Hin. apply in_app_or in Hin. destruct Hin as [Hin|Hin]; [contradiction|apply (Hd a); [left; reflexivity|exact Hin]].
  - apply IH; auto. intros y Hy1 Hy2. apply (Hd y); [right; exact Hy1|exact Hy2].
Qed.

(** ---- the count of the walk exists ---- *)
Lemma dcnt_exists s g : WI s g -> PEND s g -> forall x, glive g x ->
  exists l, NoDup l /\ (forall y, In y l -> desc g x y) /\ dcnt s g x (N.of_nat (length l)).
Proof.
  intros H HP. pose proof (fi_R _ _ H) as HR. pose proof (R_gwf _ _ HR) as Hwf.
  apply (forest_ind _ _ HR). intros x Hl IH.
  destruct (isflag s x) eqn:Ef.
  - destruct (FI_live_get _ _ _ H Hl) as (o & Ho & _). destruct (HP x o Hl Ho Ef) as (Hpar & Hnp).
    exists [x]. split; [repeat constructor; intros []|]. split; [intros y [<-|[]]; constructor|].
    cbn [length]. change (N.of_nat 1) with 1. apply dc_flag; auto.
    intros o' Ho'. assert (o' = o) by congruence. subst. exact Hnp.
  - assert (Hl' : forall cs, (forall c, In c cs -> In c (kids g x)) -> NoDup cs ->
              exists l, NoDup l /\ (forall y, In y l -> exists c, In c cs /\ desc g c y) /\ dcl s g cs (N.of_nat (length l))).
    { induction cs as [|c cs IHc]; intros Hsub Hnd.
      - exists []. split; [constructor|]. split; [intros y []|apply dcl_nil].
      - apply NoDup_cons_iff in Hnd. destruct Hnd as (Hnc & Hnd).
        destruct (IH c (Hsub c (or_introl eq_refl))) as (l1 & N1 & D1 & C1).
        destruct (IHc (fun c' Hc' => Hsub c' (or_intror Hc')) Hnd) as (l2 & N2 & D2 & C2).
        exists (l1 ++ l2). split; [|split].
        + apply NoDup_app_intro; auto. intros y Hy1 Hy2. destruct (D2 y Hy2) as (c' & Hc' & Dc').
          assert (c = c') by (eapply (siblings_disjoint _ _ HR x); [apply Hsub; left; reflexivity|apply Hsub; right; exact Hc'|apply D1; exact Hy1|exact Dc']).
          subst c'. contradiction.
        + intros y Hy. apply in_app_or in Hy. destruct Hy as [Hy|Hy].
          * exists c. split; [left; reflexivity|apply D1; exact Hy].
          * destruct (D2 y Hy) as (c' & Hc' & Dc'). exists c'. split; [right; exact Hc'|exact Dc'].
        + rewrite app_length, Nat2N.inj_add. apply dcl_cons; auto. }
    destruct (FI_live_get _ _ _ H Hl) as (o & Ho & Hlo).
    destruct (R_kids _ _ HR _ _ Ho Hlo) as (_ & _ & _ & Hnd).
    destruct (Hl' (kids g x) (fun c Hc => Hc) Hnd) as (l & Nl & Dl & Cl).
    exists l. split; [exact Nl|]. split.
    + intros y Hy. destruct (Dl y Hy) as (c & Hc & Dc). eapply desc_trans; [eapply desc_step; [constructor|exact Hc]|exact Dc].
    + apply dc_node; auto.
Qed.

Lemma desc_live g x y : gwf g -> glive g x -> desc g x y -> glive g y.
Proof. intros Hwf Hl Hd. induction Hd as [|p c Hd IH Hin]; [exact Hl|apply (Hwf _ _ Hin)]. Qed.

Lemma dcnt_bounded s g : WI s g -> PEND s g -> forall x, glive g x -> exists n, dcnt s g x n /\ n <= lp s.
Proof.
  intros H HP x Hl. destruct (dcnt_exists s g H HP x Hl) as (l & Nl & Dl & Cl).
  exists (N.of_nat (length l)). split; [exact Cl|]. pose proof (fi_R _ _ H) as HR.
  assert (length l <= length (t_pool (p_tree s)))%nat; [|unfold lp; lia].
  apply nodup_bound; [exact Nl|]. intros y Hy. rewrite <- (R_len _ _ HR). eapply glive_lt.
  eapply desc_live; [apply (R_gwf _ _ HR)|exact Hl|apply Dl; exact Hy].
Qed.

(** ---- the resolve loop touches neither the reader nor the stacks nor the size of the pool ---- *)
Definition unmoved (s s' : pstate) : Prop :=
  p_r s' = p_r s /\ p_scopeStack s' = p_scopeStack s /\ length (t_pool (p_tree s')) = length (t_pool (p_tree s)).
Lemma unmoved_refl s : unmoved s s.
Proof. repeat split. Qed.
Lemma unmoved_trans s1 s2 s3 : unmoved s1 s2 -> unmoved s2 s3 -> unmoved s1 s3.
Proof. intros (A1 & A2 & A3) (B1 & B2 & B3). repeat split; congruence. Qed.

Definition quiet {A} (m : M A) : Prop := runs unmoved m.

Lemma quiet_same {A} (m : M A) : (forall s a s', m s = Ok (a, s') -> s' = s) -> quiet m.
Proof. intros H s a s' E. rewrite (H _ _ _ E). apply unmoved_refl. Qed.
Lemma quiet_get {A} (f : pstate -> A) : quiet (Parser.get f).
Proof. apply quiet_same. intros s a s' H. inversion H; reflexivity. Qed.
Lemma quiet_tq {A} (f : T -> outcome A) : quiet (tq f).
Proof. apply quiet_same. intros s a s' H. unfold tq, lift in H. destruct (f (p_tree s)); try discriminate. inversion H; reflexivity. Qed.
Lemma quiet_liftf {A} (f : pstate -> outcome A) : quiet (fun s => lift (f s) s).
Proof. apply quiet_same. intros s a s' H. unfold lift in H. destruct (f s); try discriminate. inversion H; reflexivity. Qed.
Lemma quiet_need (o : option N) : quiet (need o).
Proof. destruct o; [apply (runs_ret _ unmoved_refl)|apply runs_panic]. Qed.
Lemma quiet_info i : quiet (info i).
Proof. unfold info. destruct (opInfo i); [apply (runs_ret _ unmoved_refl)|apply runs_panic]. Qed.
Lemma quiet_counters (f : pstate -> pstate) : (forall s, exists a b c, f s = with_counters s a b c) -> quiet (fun s => Ok (tt, f s)).
Proof. intros Hf s u s' H. inversion H; subst. destruct (Hf s) as (a & b & c & ->). repeat split. Qed.
Lemma quiet_tu (f : T -> outcome T) : (forall t t', f t = Ok t' -> length (t_pool t') = length (t_pool t)) -> quiet (tu f).
Proof.
  intros Hf s u s' H. unfold tu in H. destruct (f (p_tree s)) as [t'| |] eqn:E; try discriminate. inversion H; subst.
  unfold unmoved. cbn [p_r p_scopeStack p_tree with_tree]. repeat split; auto.
Qed.

Ltac quiet_prim :=
  first [ apply (runs_ret _ unmoved_refl) | apply quiet_get | apply quiet_tq | apply quiet_liftf | apply quiet_need | apply quiet_info | apply runs_panic
        | (apply quiet_counters; intros ?; eexists _, _, _; reflexivity)
        | (apply quiet_tu; let t := fresh in let t' := fresh in let E := fresh in intros t t' E;
           first [ solve [destruct (wr_inv _ _ _ _ E) as (-> & _); apply tset_len]
                 | solve [apply (proj1 (append_pframe _ _ _ _ E))]
                 | solve [apply (proj1 (detach_pframe _ _ _ _ E))]
                 | solve [apply (proj1 (free_frame _ _ _ E))] ]) ].

Ltac quiet_tac rec :=
  unfold quiet; repeat first
    [ rec | quiet_prim | apply runs_if | (apply (runs_bind _ unmoved_trans); [|intros ?])
    | match goal with |- runs _ (match ?x with _ => _ end) => destruct x end
    | match goal with |- runs _ (let '(_, _) := ?x in _) => destruct x end ].

Ltac q_unf := unfold rdf, rdo, objectAt, objectAt', appendM, detachM, freeM, wrf, bytesOf, poolFuel, valueBytes.

Lemma nestedScope_go_quiet fuel : forall i, quiet (nestedScope_go fuel i).
Proof.
  induction fuel as [|fuel IH]; intros; cbn [nestedScope_go]; [apply runs_outOfFuel|].
  q_unf. quiet_tac ltac:(apply IH).
Qed.
Lemma scopeOf_quiet i : quiet (scopeOf i).
Proof. unfold scopeOf. q_unf. quiet_tac ltac:(apply nestedScope_go_quiet). Qed.
Lemma moveContents_go_quiet fuel : forall c t i, quiet (moveContents_go fuel c t i).
Proof.
  induction fuel as [|fuel IH]; intros; cbn [moveContents_go]; [apply runs_outOfFuel|].
  q_unf. quiet_tac ltac:(apply IH).
Qed.
Lemma insideSelf_go_quiet fuel : forall a o, quiet (insideSelf_go fuel a o).
Proof.
  induction fuel as [|fuel IH]; intros; cbn [insideSelf_go]; [apply runs_outOfFuel|].
  q_unf. quiet_tac ltac:(apply IH).
Qed.
Lemma merge_quiet fuel : (forall i, quiet (mergeScopeDirectives fuel i)) /\ (forall i r, quiet (mergeScope_loop fuel i r)).
Proof.
  induction fuel as [|fuel (IH1 & IH2)]; (split; intros; [cbn [mergeScopeDirectives]|cbn [mergeScope_loop]]);
    try (apply runs_outOfFuel).
  - q_unf. quiet_tac ltac:(first [apply IH2 | apply scopeOf_quiet | apply moveContents_go_quiet]).
  - q_unf. quiet_tac ltac:(first [apply IH1 | apply IH2]).
Qed.
Lemma relocate_quiet fuel : (forall i, quiet (relocateNamedObjects fuel i)) /\ (forall i r, quiet (relocate_loop fuel i r)).
Proof.
  induction fuel as [|fuel (IH1 & IH2)]; (split; intros; [cbn [relocateNamedObjects]|cbn [relocate_loop]]);
    try (apply runs_outOfFuel).
  - q_unf. quiet_tac ltac:(first [apply IH2 | apply scopeOf_quiet | apply insideSelf_go_quiet]).
  - q_unf. quiet_tac ltac:(first [apply IH1 | apply IH2]).
Qed.
Lemma resolve_loop_quiet wf : forall fuel, quiet (resolve_loop fuel wf).
Proof.
  induction fuel as [|fuel IH]; cbn [resolve_loop]; [apply runs_outOfFuel|].
  quiet_tac ltac:(first [apply IH | apply (proj1 (merge_quiet wf)) | apply (proj1 (relocate_quiet wf))]).
Qed.

Section Chain.
Variable tbls : list (list N).
Notation IV := (Inv tbls).

(** everything after connectNamedObjArgs, as in parseAML_body *)
Definition parse_rest (fuel : nat) : M bool :=
  mlet r3 <~ resolve_loop fuel fuel ;;
  if negb (pres_eqb r3 ROk) then ret false else parse_tail fuel fuel fuel fuel.

Lemma parseAML_body_rest fuel :
  parseAML_body fuel =
  (scopeEnter 0 ;;;
   mlet r1 <~ parseObjectList fuel ;;
   if pres_eqb r1 RFailed then ret false else
   mlet r2 <~ connectNamedObjArgs fuel 0 ;;
   if negb (pres_eqb r2 ROk) then ret false else
   (fun s => Ok (tt, with_counters s 1 (p_mergedScopes s) (p_relocatedObjects s))) ;;;
   parse_rest fuel).
Proof. reflexivity. Qed.

(** ---- the chain with a postcondition: an invariant [K] of the tree that the last three passes preserve, an invariant [KI]
     of the resolve loop (it implies [KS]) ---- *)
Section Post.
Variable K : T -> ghost -> Prop.
Hypothesis K_move : Kmove K.
Hypothesis K_upd : Kupd K.
Hypothesis K_walk : forall f4 pf s g s1 g1, WI s g -> parseDeferredBlocks f4 pf 0 s = Ok (ROk, s1) -> WI s1 g1 -> wstep s g s1 g1 -> TM NoX s1 g1 ->
  K (p_tree s) g -> K (p_tree s1) g1.

Definition tpost (b : bool) (s' : pstate) : Prop :=
  exists g', R (p_tree s') g' /\ info_valid (p_tree s') /\ pool_ok (p_tables s') (p_tree s') /\
    (b = true -> glive g' 0 /\ groot g' 0 /\ typed (p_tree s') /\ K (p_tree s') g').

Theorem tail_post : forall f4 pf f5 f6 s g,
  R (p_tree s) g -> info_valid (p_tree s) -> rok (p_r s) -> Forall (glive g) (p_scopeStack s) -> IV s ->
  glive g 0 -> groot g 0 -> TM NoX s g -> typed (p_tree s) -> PEND s g ->
  lp s + lp s * (8 * r_len (p_r s) + 3) + 4 <= InvalidIndex -> K (p_tree s) g ->
  match parse_tail f4 pf f5 f6 s with
  | Ok (b, s') => tpost b s'
  | Panic => False
  | OutOfFuel => True
  end.
Proof.
  intros f4 pf f5 f6 s g HR Hi Hrk Hsc I0 H0 Hroot HTM Hty HP Hcap HK.
  assert (H : WI s g) by (constructor; auto).
  destruct (dcnt_bounded s g H HP 0 H0) as (n & Hd & Hn).
  apply (deferred_tail_post tbls K K_move K_upd f4 pf f5 f6 n s g); auto; [nia|].
  intros s1 g1 E1 H1 S1 T1. apply (K_walk f4 pf s g s1 g1 H E1 H1 S1 T1 HK).
Qed.

Variable KI : pstate -> ghost -> Prop.
Hypothesis KI_KS : forall s g, KI s g -> KS s g.
Hypothesis KI_TM : forall s g, KI s g -> TM NoX s g.
Hypothesis KI_loop : forall wf fuel s g, MI KI NoX s g ->
  wp True (resolve_loop fuel wf) s (fun _ s' => exists g', MI KI NoX s' g').
Hypothesis K_start : forall s g, MI KI NoX s g -> K (p_tree s) g.

Theorem rest_post : forall fuel s g,
  R (p_tree s) g -> info_valid (p_tree s) -> rok (p_r s) -> p_scopeStack s = [] -> IV s ->
  glive g 0 -> groot g 0 -> is_sb s 0 ->
  tyS NoX (p_tables s) (p_handle s) (p_tree s) g ->
  KI s g -> typed (p_tree s) ->
  lp s + lp s * (8 * r_len (p_r s) + 3) + 4 <= InvalidIndex ->
  match parse_rest fuel s with
  | Ok (b, s') => tpost b s'
  | Panic => False
  | OutOfFuel => True
  end.
Proof.
  intros fuel s g HR Hi Hrk Hst I0 H0 Hroot Hsb Hty HKI Htyp Hcap.
  assert (Hpool : pool_ok (p_tables s) (p_tree s)) by (rewrite (inv_tbls _ _ I0); apply (inv_pool _ _ I0)).
  assert (HM : MI KI NoX s g).
  { constructor; auto. constructor; auto. }
  assert (W : wp True (parse_rest fuel) s tpost).
  { unfold parse_rest.
    apply (wp_bind_inv tbls _ _ _ _ _ I0); [apply hoare_resolve_loop|].
    eapply wp_weaken; [apply (wp_and_pc _ _ _ _ (fun _ s' => (p_r s' = p_r s /\ p_scopeStack s' = p_scopeStack s /\
                                  length (t_pool (p_tree s')) = length (t_pool (p_tree s))) /\ typed (p_tree s'))
                         (KI_loop fuel fuel s g HM))|auto|].
    - intros a s' E. split; [apply (resolve_loop_quiet fuel fuel s a s' E)|apply (resolve_loop_tyk fuel fuel s a s' E Htyp)].
    - intros r3 s1 ((g1 & HM1) & (Q1 & Q2 & Q3) & Ht1) I1.
      pose proof (K_start s1 g1 HM1) as HK1.
      destruct HM1 as [[A B C] D E F G HKI1]. destruct (KI_KS _ _ HKI1) as (K1 & K2).
      destruct (pres_eqb r3 ROk); cbn [negb].
      2:{ apply wp_ret. exists g1. split; [exact A|]. split; [exact B|]. split; [exact C|discriminate]. }
      pose proof (tail_post fuel fuel fuel fuel s1 g1 A B) as T.
      unfold wp. destruct (parse_tail fuel fuel fuel fuel s1) as [[b s']| |] eqn:Et; auto; apply T; auto;
        try (rewrite Q1; exact Hrk); try (rewrite Q2, Hst; constructor); try (apply KI_TM; exact HKI1);
        try (unfold lp in *; rewrite Q1, Q3; exact Hcap). }
  unfold wp in W. destruct (parse_rest fuel s) as [[b s']| |]; auto.
Qed.
End Post.

End Chain.

(** the hypotheses of [rest_post] are satisfiable: the state of DeferW's example with an empty scope stack *)
Definition dex0_state : pstate := with_scopeStack dex_state [].

Lemma dex0_hyps :
  let s := dex0_state in let g := dex_ghost in
    R (p_tree s) g /\ info_valid (p_tree s) /\ rok (p_r s) /\ p_scopeStack s = [] /\ Inv (p_tables s) s /\
    glive g 0 /\ groot g 0 /\ is_sb s 0 /\ tyS NoX (p_tables s) (p_handle s) (p_tree s) g /\
    TM3 (p_tree s) g /\ PEND s g /\ typed (p_tree s) /\
    lp s + lp s * (8 * r_len (p_r s) + 3) + 4 <= InvalidIndex.
Proof.
  cbv zeta. unfold dex0_state.
  destruct dex_hyps as (oo & op & fl & af & A & B & C & D & E & F & G & Hoo & Hrow & Hdf & Hh & Hfl & HTM & _ & _).
  split; [exact A|]. split; [exact B|]. split; [exact C|]. split; [reflexivity|].
  split; [destruct E as [E1 E2 E3 E4 E5]; constructor; assumption|].
  split; [exact F|]. split; [apply groot_chk; vm_compute; reflexivity|].
  split; [eexists; split; [vm_compute; reflexivity|vm_compute; reflexivity]|].
  change (p_tree (with_scopeStack dex_state [])) with dex_tree.
  split.
  { unfold tyS. apply (pool_cases dex_tree (fun x xo => o_opcode xo = aml_pOpScope -> o_tableHandle xo = p_handle (with_scopeStack dex_state []) -> ~ NoX x ->
                                             sdir (p_tables (with_scopeStack dex_state [])) dex_tree dex_ghost x (o_name xo) (o_infoIndex xo))).
    intros k o Hk Hop. do 2 (destruct k as [|k]; [vm_compute in Hk; inversion Hk; subst o; vm_compute in Hop; discriminate|]).
    vm_compute in Hk. destruct k; discriminate. }
  split.
  { unfold TM3. apply (pool_cases dex_tree (fun m mo => o_opcode mo = aml_pOpMethod -> mtyped3 dex_tree dex_ghost m)).
    intros k o Hk Hop. do 2 (destruct k as [|k]; [vm_compute in Hk; inversion Hk; subst o; vm_compute in Hop; discriminate|]).
    vm_compute in Hk. destruct k; discriminate. }
  split.
  { intros x o Hl Ho Hf. change (p_tree (with_scopeStack dex_state [])) with dex_tree in Ho.
    revert Hl Hf. pattern x, o. revert x o Ho. apply pool_cases. intros k o Hk Hl Hf.
    destruct k as [|k]; [vm_compute in Hf; discriminate|].
    destruct k as [|k]; [|vm_compute in Hk; destruct k; discriminate].
    split; [exists 0; vm_compute; left; reflexivity|]. vm_compute in Hk. inversion Hk; subst o. vm_compute. discriminate. }
  split.
  { exact dex_typed. }
  vm_compute; discriminate.
Qed.

Lemma rest_hyps_example :
  exists (s : pstate) (g : ghost),
    R (p_tree s) g /\ info_valid (p_tree s) /\ rok (p_r s) /\ p_scopeStack s = [] /\ Inv (p_tables s) s /\
    glive g 0 /\ groot g 0 /\ is_sb s 0 /\ tyS NoX (p_tables s) (p_handle s) (p_tree s) g /\
    TM3 (p_tree s) g /\ PEND s g /\ typed (p_tree s) /\
    lp s + lp s * (8 * r_len (p_r s) + 3) + 4 <= InvalidIndex /\
    match parse_rest 10 s with Ok (b, s') => b = true /\ lp s' = 4 | _ => False end.
Proof.
  pose proof dex0_hyps as H. cbv zeta in H. destruct H as (A & B & C & D & E & F & G & H1 & H2 & H3 & H4 & H5 & H6).
  exists dex0_state, dex_ghost.
  split; [exact A|]. split; [exact B|]. split; [exact C|]. split; [exact D|]. split; [exact E|]. split; [exact F|].
  split; [exact G|]. split; [exact H1|]. split; [exact H2|]. split; [exact H3|]. split; [exact H4|]. split; [exact H5|].
  split; [exact H6|]. vm_compute. split; reflexivity.
Qed.
