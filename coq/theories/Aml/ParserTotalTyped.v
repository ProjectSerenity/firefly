(** Every pass of ParseAML preserves "each pOpIntNamePathOrMethodCall object carries a []byte value"
    ([typed], the hypothesis of resolveMethodCalls) - a partial-correctness fact, by structural decomposition.
    The only writes of a value that is not a []byte hit an object created just before with another opcode (tracked
    with [Anp]) or an object whose opcode was read just before (parseObjectArgs). *)
From Coq Require Import NArith Arith List Bool Lia.
From FF Require Import Lib.Word Gen.Consts_device_acpi_aml Aml.Stream Aml.Lex Aml.Tree Aml.Parser Aml.TreeSpec Aml.TreeProofs
  Aml.ParserTotalTree Aml.ParserTotalTree2 Aml.ParserTotalRuns Aml.ParserTotalBase Aml.ParserTotalLeaf Aml.ParserTotalFrame
  Aml.ParserTotalCalls Aml.ParserTotalDeferM.
Import ListNotations.
Local Open Scope N_scope.

Notation NPC := aml_pOpIntNamePathOrMethodCall.

Definition isbytes (v : option value) : Prop := exists tbl sl, v = Some (VBytes tbl sl).
Definition Anp (p : N) (t : T) : Prop := forall o, tget t p = Some o -> o_opcode o <> NPC.

Lemma isbytes_bytesValue tbl sl : isbytes (Some (bytesValue tbl sl)).
Proof. unfold bytesValue. destruct (s_ptr sl); eexists _, _; reflexivity. Qed.

Lemma npc_not_freed : NPC <> opFreed.
Proof. vm_compute. discriminate. Qed.

Lemma typed_tset2 (t : T) p f : typed t ->
  (forall o, tget t p = Some o -> o_opcode (f o) = NPC -> isbytes (o_value (f o))) -> typed (tset t p f).
Proof.
  intros Ht Hf i o' Hg Hl Hop. rewrite get_tset in Hg. destruct (N.eqb_spec i p) as [->|Hne].
  - destruct (tget t p) as [o|] eqn:E; cbn [option_map] in Hg; [|discriminate]. inversion Hg; subst o'. apply (Hf o eq_refl Hop).
  - apply (Ht i o' Hg Hl Hop).
Qed.

Lemma Anp_tset (t : T) q p f : Anp q t -> (forall o, o_opcode (f o) = o_opcode o \/ o_opcode (f o) <> NPC) -> Anp q (tset t p f).
Proof.
  intros H Hf o' Hg. rewrite get_tset in Hg. destruct (N.eqb_spec q p) as [->|Hne]; [|apply (H o' Hg)].
  destruct (tget t p) as [o|] eqn:E; cbn [option_map] in Hg; [|discriminate]. inversion Hg; subst o'.
  destruct (Hf o) as [Eo|Eo]; [rewrite Eo; apply (H o E)|exact Eo].
Qed.

Lemma typed_back (t t' : T) : typed t ->
  (forall i o', tget t' i = Some o' -> o_opcode o' = NPC -> exists o, tget t i = Some o /\ o_opcode o = NPC /\ o_value o' = o_value o) ->
  typed t'.
Proof.
  intros Ht Hb i o' Hg Hl Hop. destruct (Hb i o' Hg Hop) as (o & Ho & Eo & Ev). rewrite Ev. apply (Ht i o Ho); [rewrite Eo; apply npc_not_freed|exact Eo].
Qed.

Lemma Anp_pframe (t t' : T) q : Anp q t -> pframe t t' -> Anp q t'.
Proof. intros H Hp o' Hg. destruct (pframe_inv _ _ _ _ Hp Hg) as (o & Ho & E1 & _). rewrite E1. apply (H o Ho). Qed.

(** ---- the judgements ---- *)
Definition tyk {A} (m : M A) : Prop := forall s a s', m s = Ok (a, s') -> typed (p_tree s) -> typed (p_tree s').
Definition stepA {A} (p : N) (m : M A) : Prop :=
  forall s a s', m s = Ok (a, s') -> typed (p_tree s) -> Anp p (p_tree s) -> typed (p_tree s') /\ Anp p (p_tree s').
Definition tykA {A} (p : N) (m : M A) : Prop :=
  forall s a s', m s = Ok (a, s') -> typed (p_tree s) -> Anp p (p_tree s) -> typed (p_tree s').

Lemma tyk_notree {A} (m : M A) : notree m -> tyk m.
Proof. intros H s a s' E Ht. rewrite (H _ _ _ E). exact Ht. Qed.
Lemma tyk_ret {A} (a : A) : tyk (ret a).
Proof. apply tyk_notree, notree_inert, inert_ret. Qed.
Lemma tyk_bind {A B} (m : M A) (f : A -> M B) : tyk m -> (forall a, tyk (f a)) -> tyk (bindM m f).
Proof. intros Hm Hf s b s' H Ht. apply bindM_ok in H. destruct H as (a & s1 & E1 & E2). exact (Hf a _ _ _ E2 (Hm _ _ _ E1 Ht)). Qed.
Lemma tyk_if {A} (b : bool) (m1 m2 : M A) : tyk m1 -> tyk m2 -> tyk (if b then m1 else m2).
Proof. destruct b; auto. Qed.
Lemma tyk_fail {A} (m : M A) : (forall s, m s = Panic \/ m s = OutOfFuel) -> tyk m.
Proof. intros H s a s' E. destruct (H s) as [F|F]; rewrite F in E; discriminate. Qed.

Lemma wrf_inv p f s u s' : wrf p f s = Ok (u, s') -> exists o, tget (p_tree s) p = Some o /\ p_tree s' = tset (p_tree s) p f.
Proof.
  unfold wrf, tu. intros H. destruct (wr (p_tree s) p f) as [t'| |] eqn:E; try discriminate. inversion H; subst.
  destruct (wr_inv _ _ _ _ E) as (-> & o & Ho). exists o. split; [exact Ho|reflexivity].
Qed.

Lemma tyk_wrf_keep p f : (forall o, o_opcode (f o) = o_opcode o /\ o_value (f o) = o_value o) -> tyk (wrf p f).
Proof.
  intros Hf s u s' H Ht. destruct (wrf_inv _ _ _ _ _ H) as (o & Ho & ->). apply typed_tset2; [exact Ht|].
  intros o1 Ho1 Hop. destruct (Hf o1) as (E1 & E2). rewrite E2. rewrite E1 in Hop. apply (Ht p o1 Ho1); [rewrite Hop; apply npc_not_freed|exact Hop].
Qed.
Lemma tyk_wrf_bytes p tbl sl : tyk (wrf p (set_value (Some (bytesValue tbl sl)))).
Proof.
  intros s u s' H Ht. destruct (wrf_inv _ _ _ _ _ H) as (o & Ho & ->). apply typed_tset2; [exact Ht|].
  intros o1 _ _. apply isbytes_bytesValue.
Qed.
Lemma tyk_wrf_opcode p x : x <> NPC -> tyk (wrf p (set_opcode x)).
Proof.
  intros Hx s u s' H Ht. destruct (wrf_inv _ _ _ _ _ H) as (o & Ho & ->). apply typed_tset2; [exact Ht|].
  intros o1 _ Hop. exfalso. apply Hx. exact Hop.
Qed.

Lemma newObj_inv opc s p s' : newObj opc s = Ok (p, s') ->
  (exists po, tget (p_tree s') p = Some po /\ o_opcode po = opc /\ o_value po = None) /\
  (forall i o, i <> p -> tget (p_tree s') i = Some o -> tget (p_tree s) i = Some o).
Proof.
  unfold newObj. intros H. destruct (newObject (p_tree s) opc (p_handle s)) as [[t' q]| |] eqn:E; try discriminate.
  inversion H; subst q s'. cbn [p_tree with_tree].
  destruct (newObject_shape _ _ _ _ _ E) as ((po & Hpo & Hpop & _ & _ & Hval) & _ & Hbw & _).
  split; [exists po; auto|exact Hbw].
Qed.

Lemma newObj_typed opc s p s' : opc <> NPC -> newObj opc s = Ok (p, s') -> typed (p_tree s) -> typed (p_tree s') /\ Anp p (p_tree s').
Proof.
  intros Hne H Ht. destruct (newObj_inv _ _ _ _ H) as ((po & Hpo & Hop & _) & Hbw). split.
  - intros i o Hg Hl Hopc. destruct (N.eq_dec i p) as [->|Hip].
    + exfalso. assert (o = po) by congruence. subst o. apply Hne. congruence.
    + apply (Ht i o (Hbw i o Hip Hg) Hl Hopc).
  - intros o Ho. assert (o = po) by congruence. subst o. rewrite Hop. exact Hne.
Qed.

Lemma newObj_Anp opc s p s' q : opc <> NPC -> newObj opc s = Ok (p, s') -> Anp q (p_tree s) -> Anp q (p_tree s').
Proof.
  intros Hne H Hq o Ho. destruct (newObj_inv _ _ _ _ H) as ((po & Hpo & Hop & _) & Hbw).
  destruct (N.eq_dec q p) as [->|Hqp]; [assert (o = po) by congruence; subst o; rewrite Hop; exact Hne|].
  apply (Hq o (Hbw q o Hqp Ho)).
Qed.

Lemma tyk_newObj opc : opc <> NPC -> tyk (newObj opc).
Proof. intros Hne s p s' H Ht. apply (newObj_typed _ _ _ _ Hne H Ht). Qed.

Lemma tu_inv (f : T -> outcome T) s u s' : tu f s = Ok (u, s') -> f (p_tree s) = Ok (p_tree s').
Proof. unfold tu. intros H. destruct (f (p_tree s)) as [t'| |]; try discriminate. inversion H; subst. reflexivity. Qed.

Lemma tyk_tu_pframe (f : T -> outcome T) : (forall t t', f t = Ok t' -> pframe t t') -> tyk (tu f).
Proof. intros Hf s u s' H Ht. eapply typed_pframe; [exact Ht|apply Hf; eapply tu_inv; eauto]. Qed.

Lemma free_typed (t t' : T) x : free t x = Ok t' -> typed t -> typed t'.
Proof.
  unfold free. intros H Ht.
  apply bind_ok in H. destruct H as (par & _ & H).
  apply bind_ok in H. destruct H as (t1 & Ht1 & H).
  assert (T1 : typed t1).
  { destruct (negb (par =? InvalidIndex)).
    - apply bind_ok in Ht1. destruct Ht1 as (pp & _ & Hd). eapply typed_pframe; [exact Ht|eapply detach_pframe; eauto].
    - inversion Ht1; subst. exact Ht. }
  apply bind_ok in H. destruct H as (first & _ & H).
  apply bind_ok in H. destruct H as (lst & _ & H).
  destruct (negb (first =? InvalidIndex) || negb (lst =? InvalidIndex)); [discriminate|].
  apply bind_ok in H. destruct H as (t2 & Ht2 & H). destruct (wr_inv _ _ _ _ Ht2) as (-> & o1 & Ho1).
  apply bind_ok in H. destruct H as (t3 & Ht3 & H). destruct (wr_inv _ _ _ _ Ht3) as (-> & _).
  apply bind_ok in H. destruct H as (oi & _ & H). inversion H; subst t'. clear H.
  intros i o Hg. change (tget (tset (tset t1 x (set_opcode opFreed)) x (set_next (t_free (tset t1 x (set_opcode opFreed))))) i = Some o) in Hg.
  revert i o Hg. apply typed_tset2.
  - apply typed_tset2; [exact T1|]. intros o _ Hop. exfalso. cbn in Hop. apply npc_not_freed. symmetry. exact Hop.
  - intros o Ho Hop. exfalso. rewrite get_tset, N.eqb_refl, Ho1 in Ho. cbn [option_map] in Ho. inversion Ho; subst o.
    cbn in Hop. apply npc_not_freed. symmetry. exact Hop.
Qed.

Lemma tyk_freeM x : tyk (freeM x).
Proof. intros s u s' H Ht. unfold freeM in H. exact (free_typed _ _ x (tu_inv _ _ _ _ H) Ht). Qed.

(** ---- with a tracked object ---- *)
Lemma tykA_drop {A} p (m : M A) : tyk m -> tykA p m.
Proof. intros H s a s' E Ht _. exact (H _ _ _ E Ht). Qed.
Lemma tykA_bind {A B} p (m : M A) (f : A -> M B) : stepA p m -> (forall a, tykA p (f a)) -> tykA p (bindM m f).
Proof.
  intros Hm Hf s b s' H Ht Ha. apply bindM_ok in H. destruct H as (a & s1 & E1 & E2).
  destruct (Hm _ _ _ E1 Ht Ha) as (T1 & A1). exact (Hf a _ _ _ E2 T1 A1).
Qed.
Lemma tykA_if {A} p (b : bool) (m1 m2 : M A) : tykA p m1 -> tykA p m2 -> tykA p (if b then m1 else m2).
Proof. destruct b; auto. Qed.
Lemma tyk_newObj_A {B} opc (f : N -> M B) : opc <> NPC -> (forall p, tykA p (f p)) -> tyk (bindM (newObj opc) f).
Proof.
  intros Hne Hf s b s' H Ht. apply bindM_ok in H. destruct H as (p & s1 & E1 & E2).
  destruct (newObj_typed _ _ _ _ Hne E1 Ht) as (T1 & A1). exact (Hf p _ _ _ E2 T1 A1).
Qed.

Lemma stepA_notree {A} p (m : M A) : notree m -> stepA p m.
Proof. intros H s a s' E Ht Ha. rewrite (H _ _ _ E). auto. Qed.
Lemma stepA_bind {A B} p (m : M A) (f : A -> M B) : stepA p m -> (forall a, stepA p (f a)) -> stepA p (bindM m f).
Proof.
  intros Hm Hf s b s' H Ht Ha. apply bindM_ok in H. destruct H as (a & s1 & E1 & E2).
  destruct (Hm _ _ _ E1 Ht Ha) as (T1 & A1). exact (Hf a _ _ _ E2 T1 A1).
Qed.
Lemma stepA_if {A} p (b : bool) (m1 m2 : M A) : stepA p m1 -> stepA p m2 -> stepA p (if b then m1 else m2).
Proof. destruct b; auto. Qed.
Lemma stepA_fail {A} p (m : M A) : (forall s, m s = Panic \/ m s = OutOfFuel) -> stepA p m.
Proof. intros H s a s' E. destruct (H s) as [F|F]; rewrite F in E; discriminate. Qed.
Lemma stepA_wrf_keep p q f : (forall o, o_opcode (f o) = o_opcode o /\ o_value (f o) = o_value o) -> stepA p (wrf q f).
Proof.
  intros Hf s u s' H Ht Ha. split; [exact (tyk_wrf_keep q f Hf _ _ _ H Ht)|].
  destruct (wrf_inv _ _ _ _ _ H) as (o & Ho & ->). apply Anp_tset; [exact Ha|]. intros o1. left. apply Hf.
Qed.
Lemma stepA_wrf_bytes p q tbl sl : stepA p (wrf q (set_value (Some (bytesValue tbl sl)))).
Proof.
  intros s u s' H Ht Ha. split; [exact (tyk_wrf_bytes q tbl sl _ _ _ H Ht)|].
  destruct (wrf_inv _ _ _ _ _ H) as (o & Ho & ->). apply Anp_tset; [exact Ha|]. intros o1. left. reflexivity.
Qed.
Lemma stepA_wrf_self p v : stepA p (wrf p (set_value v)).
Proof.
  intros s u s' H Ht Ha. destruct (wrf_inv _ _ _ _ _ H) as (o & Ho & ->). split.
  - apply typed_tset2; [exact Ht|]. intros o1 Ho1 Hop. exfalso. apply (Ha o1 Ho1). exact Hop.
  - apply Anp_tset; [exact Ha|]. intros o1. left. reflexivity.
Qed.
Lemma stepA_wrf_opcode p q x : x <> NPC -> stepA p (wrf q (set_opcode x)).
Proof.
  intros Hx s u s' H Ht Ha. split; [exact (tyk_wrf_opcode q x Hx _ _ _ H Ht)|].
  destruct (wrf_inv _ _ _ _ _ H) as (o & Ho & ->). apply Anp_tset; [exact Ha|]. intros o1. right. exact Hx.
Qed.
Lemma stepA_tu_pframe p (f : T -> outcome T) : (forall t t', f t = Ok t' -> pframe t t') -> stepA p (tu f).
Proof.
  intros Hf s u s' H Ht Ha. pose proof (Hf _ _ (tu_inv _ _ _ _ H)) as Hp. split; [eapply typed_pframe; eauto|eapply Anp_pframe; eauto].
Qed.

(** the object parseNamePathOrMethodCall creates in the first pass *)
Lemma tyk_npc {B} off tbl sl (k : N -> M B) : (forall c, tyk (k c)) ->
  tyk (bindM (newObj NPC) (fun c => bindM (wrf c (set_amlOffset off)) (fun _ =>
       bindM (wrf c (set_value (Some (bytesValue tbl sl)))) (fun _ => k c)))).
Proof.
  intros Hk s b s' H Ht. apply bindM_ok in H. destruct H as (c & s1 & E1 & H).
  apply bindM_ok in H. destruct H as (u2 & s2 & E2 & H). apply bindM_ok in H. destruct H as (u3 & s3 & E3 & H).
  apply (Hk c _ _ _ H). destruct (newObj_inv _ _ _ _ E1) as ((po & Hpo & Hop & _) & Hbw).
  destruct (wrf_inv _ _ _ _ _ E2) as (o2 & Ho2 & T2). destruct (wrf_inv _ _ _ _ _ E3) as (o3 & Ho3 & T3).
  rewrite T3, T2. intros i o Hg Hl Hopc. rewrite !get_tset in Hg. destruct (N.eqb_spec i c) as [->|Hne].
  - rewrite Hpo in Hg. cbn [option_map] in Hg. inversion Hg; subst o. apply isbytes_bytesValue.
  - apply (Ht i o (Hbw i o Hne Hg) Hl Hopc).
Qed.

(** after the opcode of an object has been read *)
Lemma tyk_rdf_opcode {B} c (k : N -> M B) : (forall op, op <> NPC -> tykA c (k op)) -> tyk (k NPC) -> tyk (bindM (rdf c o_opcode) k).
Proof.
  intros Hk Hn s b s' H Ht. apply bindM_ok in H. destruct H as (op & s1 & E1 & H).
  unfold rdf, tq in E1. destruct (rd (p_tree s) c o_opcode) as [x| |] eqn:Er; try discriminate. inversion E1; subst x s1. clear E1.
  unfold rd in Er. rewrite deref_get in Er. destruct (tget (p_tree s) c) as [o|] eqn:Eo; cbn [bind] in Er; [|discriminate]. inversion Er; subst op.
  destruct (N.eq_dec (o_opcode o) NPC) as [E|E].
  - rewrite E in H. exact (Hn _ _ _ H Ht).
  - apply (Hk _ E _ _ _ H Ht). intros o' Ho'. assert (o' = o) by congruence. subst o'. exact E.
Qed.

Lemma tyk_lex_op {B} (f : reader -> outcome (N * bool * reader)) (k : N * bool -> M B) :
  (forall r op r', f r = Ok (op, true, r') -> op <> NPC) ->
  (forall op, op <> NPC -> tyk (k (op, true))) -> (forall op, tyk (k (op, false))) -> tyk (bindM (lex f) k).
Proof.
  intros Hf Hk1 Hk2 s b s' H Ht. unfold bindM, lex in H. destruct (f (p_r s)) as [[[op ok] r1]| |] eqn:E; try discriminate.
  destruct ok; [exact (Hk1 op (Hf _ _ _ E) _ _ _ H Ht)|exact (Hk2 op _ _ _ H Ht)].
Qed.

(** ---- automation ---- *)
Ltac keep_side := let o := fresh "o" in intros o; split; reflexivity.

Ltac stepA_prim :=
  first [ (apply stepA_notree; notree_prim2)
        | apply stepA_wrf_self | apply stepA_wrf_bytes
        | (apply stepA_wrf_keep; keep_side)
        | (apply stepA_wrf_opcode; discriminate)
        | (apply stepA_tu_pframe; let t := fresh in let t' := fresh in let E := fresh in intros t t' E;
           first [solve [eapply append_pframe; eauto] | solve [eapply appendAfter_pframe; eauto] | solve [eapply detach_pframe; eauto]]) ].

Ltac tyk_prim :=
  first [ (apply tyk_notree; notree_prim2)
        | apply tyk_wrf_bytes
        | (apply tyk_wrf_keep; keep_side)
        | (apply tyk_wrf_opcode; discriminate)
        | apply tyk_freeM
        | (apply tyk_tu_pframe; let t := fresh in let t' := fresh in let E := fresh in intros t t' E;
           first [solve [eapply append_pframe; eauto] | solve [eapply appendAfter_pframe; eauto] | solve [eapply detach_pframe; eauto]]) ].

Ltac ty_unf := parser_unf.

Lemma tykA_bind_if {A B} p (b : bool) (m1 m2 : M A) (f : A -> M B) :
  tykA p (bindM m1 f) -> tykA p (bindM m2 f) -> tykA p (bindM (if b then m1 else m2) f).
Proof. destruct b; auto. Qed.
Lemma tyk_bind_if {A B} (b : bool) (m1 m2 : M A) (f : A -> M B) :
  tyk (bindM m1 f) -> tyk (bindM m2 f) -> tyk (bindM (if b then m1 else m2) f).
Proof. destruct b; auto. Qed.

Ltac stepA_leaf := fail.

Ltac stepA_all :=
  repeat first
    [ stepA_leaf | stepA_prim | apply stepA_if | (apply stepA_bind; [|intros ?])
    | match goal with |- stepA _ (match ?x with _ => _ end) => destruct x end
    | match goal with |- stepA _ (let '(_, _) := ?x in _) => destruct x end ].

Ltac ty_step :=
  match goal with
  | |- tyk (bindM (newObj aml_pOpIntNamePathOrMethodCall) _) => apply tyk_npc; intros ?
  | |- tyk (bindM (newObj _) _) => apply tyk_newObj_A; [first [discriminate|assumption]|intros ?]
  | |- tyk (bindM (lex nextOpcode) (fun _ => let '(_, _) := _ in _)) =>
      apply tyk_lex_op; [exact nextOpcode_not_npc|intros ? ?; cbv beta iota; cbn [negb]|intros ?; cbv beta iota; cbn [negb]]
  | |- tyk (bindM (lex peekNextOpcode) (fun _ => let '(_, _) := _ in _)) =>
      apply tyk_lex_op; [exact peekNextOpcode_not_npc|intros ? ?; cbv beta iota; cbn [negb]|intros ?; cbv beta iota; cbn [negb]]
  | |- tyk (bindM _ _) => apply tyk_bind; [|intros ?]
  | |- tyk (if _ then _ else _) => apply tyk_if
  | |- tyk (match ?x with _ => _ end) => destruct x
  | |- tyk (let '(_, _) := ?x in _) => destruct x
  | |- tykA _ (bindM (newObj _) _) => apply tykA_drop
  | |- tykA _ (bindM (if _ then _ else _) _) => apply tykA_bind_if
  | |- tykA _ (bindM _ _) => first [ apply tykA_bind; [solve [stepA_all] | intros ?] | apply tykA_drop ]
  | |- tykA _ (if _ then _ else _) => apply tykA_if
  | |- tykA _ (match ?x with _ => _ end) => destruct x
  | |- tykA _ (let '(_, _) := ?x in _) => destruct x
  | |- tykA _ _ => apply tykA_drop
  | |- tyk _ => tyk_prim
  end.

(** ---- the leaves ---- *)
Lemma parseByteList_stepA p obj n : stepA p (parseByteList obj n).
Proof. unfold parseByteList. ty_unf. stepA_all. Qed.

Lemma readName_go_stepA p field cnt : forall i, stepA p (readName_go cnt i field).
Proof. induction cnt as [|cnt IH]; intros i; cbn [readName_go]; ty_unf; stepA_all; apply IH. Qed.

Ltac stepA_leaf ::= first [ apply parseByteList_stepA | apply readName_go_stepA ].

Lemma tyk_of_stepA {A} (m : M A) : (forall p, stepA p m) -> tyk m.
Proof.
  intros H s a s' E Ht. destruct (H (N.of_nat (length (t_pool (p_tree s)))) _ _ _ E Ht) as (T1 & _); [|exact T1].
  intros o Ho. exfalso. unfold TreeSpec.get in Ho. rewrite Nnat.Nat2N.id in Ho.
  assert (Hlt : (length (t_pool (p_tree s)) < length (t_pool (p_tree s)))%nat) by (apply nth_error_Some; rewrite Ho; discriminate). lia.
Qed.

Lemma parseByteList_tyk obj n : tyk (parseByteList obj n).
Proof. apply tyk_of_stepA. intros p. apply parseByteList_stepA. Qed.

Lemma parseSimpleArg_tyk ty : tyk (parseSimpleArg ty).
Proof. unfold parseSimpleArg, simple_num, simple_str. ty_unf. cbv zeta. repeat ty_step. Qed.

Lemma fieldElements_go_tyk fuel : forall curObj f, tyk (fieldElements_go fuel curObj f).
Proof.
  induction fuel as [|fuel IH]; intros curObj f; cbn [fieldElements_go]; [apply tyk_fail; intros; right; reflexivity|].
  ty_unf. repeat first [ ty_step | apply IH ].
Qed.

Lemma parseFieldElements_tyk curObj : tyk (parseFieldElements curObj).
Proof. unfold parseFieldElements. ty_unf. repeat first [ ty_step | apply fieldElements_go_tyk ]. Qed.

(** the nine mutually recursive functions *)
Definition tblock (fuel : nat) : Prop :=
  tyk (parseNextObject fuel) /\ (forall c, tyk (parseObjectArgs fuel c)) /\
  (forall inf c i, tyk (parseArgs fuel inf c i)) /\ (forall inf c ty, tyk (parseArg fuel inf c ty)) /\
  tyk (termList_go fuel) /\ tyk (parseNamePathOrMethodCall fuel) /\ (forall n, tyk (callArgs_go fuel n)) /\
  (forall c, tyk (parseStrictTermArg fuel c)) /\ tyk (parseTarget fuel).

Ltac trec H1 H2 H3 H4 H5 H6 H7 H8 H9 :=
  lazymatch goal with
  | |- tyk ?m => block_call m H1 H2 H3 H4 H5 H6 H7 H8 H9 parseSimpleArg_tyk parseByteList_tyk parseFieldElements_tyk
  end.

Lemma npc_consts :
  (NPC =? aml_pOpBytePrefix) = false /\ (NPC =? aml_pOpWordPrefix) = false /\ (NPC =? aml_pOpDwordPrefix) = false /\
  (NPC =? aml_pOpQwordPrefix) = false /\ (NPC =? aml_pOpStringPrefix) = false.
Proof. vm_compute. repeat split; reflexivity. Qed.

Lemma tblock_all : forall fuel, tblock fuel.
Proof.
  induction fuel as [|fuel (H1 & H2 & H3 & H4 & H5 & H6 & H7 & H8 & H9)].
  - unfold tblock. repeat match goal with |- _ /\ _ => split end; intros; cbn; apply tyk_fail; intros; right; reflexivity.
  - unfold tblock. repeat match goal with |- _ /\ _ => split end; intros.
    + cbn [parseNextObject]. ty_unf. repeat first [ trec H1 H2 H3 H4 H5 H6 H7 H8 H9 | ty_step ].
    + cbn [parseObjectArgs]. apply tyk_rdf_opcode.
      * intros op Hop. ty_unf. repeat first [ trec H1 H2 H3 H4 H5 H6 H7 H8 H9 | ty_step ].
      * destruct npc_consts as (E1 & E2 & E3 & E4 & E5). rewrite E1, E2, E3, E4, E5.
        ty_unf. repeat first [ trec H1 H2 H3 H4 H5 H6 H7 H8 H9 | ty_step ].
    + cbn [parseArgs]. destruct inf as [[? ?] ?]. ty_unf. repeat first [ trec H1 H2 H3 H4 H5 H6 H7 H8 H9 | ty_step ].
    + cbn [parseArg]. destruct inf as [[? ?] ?]. ty_unf. repeat first [ trec H1 H2 H3 H4 H5 H6 H7 H8 H9 | ty_step ].
    + cbn [termList_go]. ty_unf. repeat first [ trec H1 H2 H3 H4 H5 H6 H7 H8 H9 | ty_step ].
    + cbn [parseNamePathOrMethodCall]. ty_unf. repeat first [ trec H1 H2 H3 H4 H5 H6 H7 H8 H9 | ty_step ].
    + cbn [callArgs_go]. ty_unf. repeat first [ trec H1 H2 H3 H4 H5 H6 H7 H8 H9 | ty_step ].
    + cbn [parseStrictTermArg]. ty_unf. repeat first [ trec H1 H2 H3 H4 H5 H6 H7 H8 H9 | ty_step ].
    + cbn [parseTarget]. ty_unf. repeat first [ trec H1 H2 H3 H4 H5 H6 H7 H8 H9 | ty_step ].
Qed.

Lemma parseNextObject_tyk fuel : tyk (parseNextObject fuel).
Proof. apply (tblock_all fuel). Qed.
Lemma parseObjectArgs_tyk fuel c : tyk (parseObjectArgs fuel c).
Proof. apply (tblock_all fuel). Qed.

Lemma objectList_inner_tyk fuel : tyk (objectList_inner fuel).
Proof.
  induction fuel as [|fuel IH]; cbn [objectList_inner]; [apply tyk_fail; intros; right; reflexivity|].
  ty_unf. repeat first [ ty_step | apply IH | apply parseNextObject_tyk ].
Qed.

Lemma parseObjectList_tyk fuel : tyk (parseObjectList fuel).
Proof.
  induction fuel as [|fuel IH]; cbn [parseObjectList]; [apply tyk_fail; intros; right; reflexivity|].
  ty_unf. repeat first [ ty_step | apply IH | apply objectList_inner_tyk ].
Qed.

(** pass 2 *)
Lemma attachSiblings_go_tyk fuel : forall par tgt sib n up, tyk (attachSiblings_go fuel par tgt sib n up).
Proof.
  induction fuel as [|fuel IH]; intros; cbn [attachSiblings_go]; [apply tyk_fail; intros; right; reflexivity|].
  ty_unf. repeat first [ ty_step | apply IH ].
Qed.
Lemma attachSiblingsAsArgs_tyk fuel par tgt n up : tyk (attachSiblingsAsArgs fuel par tgt n up).
Proof. unfold attachSiblingsAsArgs. ty_unf. repeat first [ ty_step | apply attachSiblings_go_tyk ]. Qed.

Lemma tyk_panic {A} : tyk (@panic A).
Proof. apply tyk_fail. intros; left; reflexivity. Qed.

Lemma connectNamed_tyk fuel : (forall i, tyk (connectNamedObjArgs fuel i)) /\ (forall o i, tyk (connectNamed_loop fuel o i)).
Proof.
  induction fuel as [|fuel (IH1 & IH2)]; (split; intros; [cbn [connectNamedObjArgs]|cbn [connectNamed_loop]]);
    try (apply tyk_fail; intros; right; reflexivity).
  - ty_unf. repeat first [ ty_step | apply IH2 ].
  - unfold valueBytes. ty_unf. repeat first [ ty_step | apply IH1 | apply IH2 | apply attachSiblingsAsArgs_tyk | apply tyk_panic ].
Qed.

(** pass 3 *)
Lemma nestedScope_go_tyk fuel : forall i, tyk (nestedScope_go fuel i).
Proof.
  induction fuel as [|fuel IH]; intros; cbn [nestedScope_go]; [apply tyk_fail; intros; right; reflexivity|].
  ty_unf. repeat first [ ty_step | apply IH ].
Qed.
Lemma scopeOf_tyk i : tyk (scopeOf i).
Proof. unfold scopeOf. ty_unf. repeat first [ ty_step | apply nestedScope_go_tyk ]. Qed.
Lemma moveContents_go_tyk fuel : forall c t i, tyk (moveContents_go fuel c t i).
Proof.
  induction fuel as [|fuel IH]; intros; cbn [moveContents_go]; [apply tyk_fail; intros; right; reflexivity|].
  ty_unf. repeat first [ ty_step | apply IH ].
Qed.
Lemma insideSelf_go_tyk fuel : forall a o, tyk (insideSelf_go fuel a o).
Proof.
  induction fuel as [|fuel IH]; intros; cbn [insideSelf_go]; [apply tyk_fail; intros; right; reflexivity|].
  ty_unf. repeat first [ ty_step | apply IH ].
Qed.

Lemma merge_tyk fuel : (forall i, tyk (mergeScopeDirectives fuel i)) /\ (forall i r, tyk (mergeScope_loop fuel i r)).
Proof.
  induction fuel as [|fuel (IH1 & IH2)]; (split; intros; [cbn [mergeScopeDirectives]|cbn [mergeScope_loop]]);
    try (apply tyk_fail; intros; right; reflexivity).
  - ty_unf. repeat first [ ty_step | apply IH2 | apply scopeOf_tyk | apply moveContents_go_tyk | apply tyk_panic ].
  - ty_unf. repeat first [ ty_step | apply IH1 | apply IH2 ].
Qed.

Lemma relocate_tyk fuel : (forall i, tyk (relocateNamedObjects fuel i)) /\ (forall i r, tyk (relocate_loop fuel i r)).
Proof.
  induction fuel as [|fuel (IH1 & IH2)]; (split; intros; [cbn [relocateNamedObjects]|cbn [relocate_loop]]);
    try (apply tyk_fail; intros; right; reflexivity).
  - unfold valueBytes. ty_unf. repeat first [ ty_step | apply IH2 | apply scopeOf_tyk | apply insideSelf_go_tyk | apply tyk_panic ].
  - ty_unf. repeat first [ ty_step | apply IH1 | apply IH2 ].
Qed.

Lemma resolve_loop_tyk wf : forall fuel, tyk (resolve_loop fuel wf).
Proof.
  induction fuel as [|fuel IH]; cbn [resolve_loop]; [apply tyk_fail; intros; right; reflexivity|].
  repeat first [ ty_step | apply IH | apply (proj1 (merge_tyk wf)) | apply (proj1 (relocate_tyk wf)) ].
Qed.

(** pass 4 *)
Lemma popAll_go_tyk fuel : tyk (popAll_go fuel).
Proof. induction fuel as [|fuel IH]; cbn [popAll_go]; [apply tyk_fail; intros; right; reflexivity|]. repeat first [ ty_step | apply IH ]. Qed.

Lemma deferred_tyk fuel pf : (forall i, tyk (parseDeferredBlocks fuel pf i)) /\ (forall i, tyk (deferred_loop fuel pf i)).
Proof.
  induction fuel as [|fuel (IH1 & IH2)]; (split; intros; [cbn [parseDeferredBlocks]|cbn [deferred_loop]]);
    try (apply tyk_fail; intros; right; reflexivity).
  - ty_unf. repeat first [ ty_step | apply IH2 | apply parseObjectArgs_tyk | apply popAll_go_tyk ].
  - ty_unf. repeat first [ ty_step | apply IH1 | apply IH2 ].
Qed.

(** the first four passes, as in parseAML_body *)
Definition parse_head (fuel : nat) : M bool :=
  scopeEnter 0 ;;;
  mlet r1 <~ parseObjectList fuel ;;
  if pres_eqb r1 RFailed then ret false else
  mlet r2 <~ connectNamedObjArgs fuel 0 ;;
  if negb (pres_eqb r2 ROk) then ret false else
  (fun s => Ok (tt, with_counters s 1 (p_mergedScopes s) (p_relocatedObjects s))) ;;;
  mlet r3 <~ resolve_loop fuel fuel ;;
  ret (pres_eqb r3 ROk).

Theorem parse_head_typed fuel : tyk (parse_head fuel).
Proof.
  unfold parse_head.
  repeat first [ ty_step | apply parseObjectList_tyk | apply (proj1 (connectNamed_tyk fuel)) | apply resolve_loop_tyk ].
Qed.

Theorem parseDeferredBlocks_typed fuel pf i : tyk (parseDeferredBlocks fuel pf i).
Proof. apply (proj1 (deferred_tyk fuel pf)). Qed.
