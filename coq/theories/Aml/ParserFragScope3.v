(** C11 (fragment F3): mergeScopeDirectives over the top-level items: every Scope directive over a predefined scope
    is merged into it (contents moved, three objects freed), everything else is left alone. *)
From Coq Require Import NArith ZArith Arith List Bool Lia.
From Coq Require Import ZifyBool ZifyN ZifyNat.
From FF Require Import Lib.Word Gen.Consts_device_acpi_aml Gen.Consts_aml_tree Aml.Stream Aml.Lex Aml.LexProofs
  Aml.Tree Aml.TreeSpec Aml.TreeProofs Aml.TreeProofsOps Aml.TreeProofsFind Aml.Parser Aml.Grammar Aml.LexRoundtrip
  Aml.ParserTotalTree Aml.ParserTotalBase
  Aml.ParserFragBase Aml.ParserFragFirst Aml.ParserFragF0 Aml.ParserFragConn Aml.ParserFragF0Conn Aml.ParserFragWalk
  Aml.ParserFragF0Top Aml.ParserFragRose Aml.ParserFragDev Aml.ParserFragF1 Aml.ParserFragF1First Aml.ParserFragF1Conn Aml.ParserFragF1Top
  Aml.ParserFragMerge Aml.ParserFragScope Aml.ParserFragScope2.
Import ListNotations.
Local Open Scope N_scope.

(** ---- descriptions and descendants ---- *)

Lemma floop_size g pl : forall l f, Forall (Desc g pl) l -> (3 * rsizes l + 1 <= f)%nat -> floop g f (map ridx l).
Proof.
  induction l as [|c r IHl]; intros f HD Hf; (destruct f as [|f']; [lia|]); cbn [floop map]; [exact I|].
  inversion HD; subst. cbn [rsizes fold_right] in Hf. fold (rsizes r) in Hf. pose proof (rsize_pos c).
  split; [apply (fwalk_size g pl c); [assumption|lia]|apply IHl; [assumption|lia]].
Qed.

Lemma merge_ok_f1 H0 i a ks : f1_okE (RN i a ks) -> merge_ok H0 a.
Proof.
  intros (h0 & tbl0 & Hk). revert Hk. cbn [f1_ok]. intros [(nm & ->)|[(bk & off & nm & p & po & rest & -> & _)|[(off & w & v & -> & _)|[(off & ->)|[(off & -> & _)|[(off & nm & p & po & c & co & d & -> & _ & _)|[(off & d & -> & Hc & _)|[(lk & off & nm & p & po & rest & -> & _)|[(off & bs & -> & _)|[(off & nm & p & po & rest & -> & _)|(off & ->)]]]]]]]]]];
    try (do 3 eexists; split; [reflexivity|right; reflexivity]).
  - destruct bk; (do 3 eexists; split; [reflexivity|right; reflexivity]).
  - destruct w; (do 3 eexists; split; [reflexivity|right; reflexivity]).
  - unfold cst_pay, merge_ok. cbn [y_info y_op y_th].
    destruct (is_constb_cases _ Hc) as [E|[E|[E|[E|[E|[E|E]]]]]]; rewrite E; (do 3 eexists; split; [reflexivity|right; reflexivity]).
  - destruct lk; (do 3 eexists; split; [reflexivity|right; reflexivity]).
Qed.

Lemma f1_okE_live i a ks : f1_okE (RN i a ks) -> y_op a <> opFreed.
Proof.
  intros (h0 & tbl0 & Hk1). cbn [f1_ok] in Hk1.
  destruct Hk1 as [(nm & ->)|[(bk0 & ? & ? & ? & ? & ? & -> & _)|[(? & w0 & ? & -> & _)|[(? & ->)|[(? & -> & _)|[(? & ? & ? & ? & ? & ? & ? & -> & _ & _)|[(? & d & -> & Hc & _)|[(lk0 & ? & ? & ? & ? & ? & -> & _)|[(? & ? & -> & _)|[(? & ? & ? & ? & ? & -> & _)|(? & ->)]]]]]]]]]]; try discriminate; try (destruct bk0; discriminate); try (destruct w0; discriminate); try (destruct lk0; discriminate).
  cbn [cst_pay y_op]. destruct (is_constb_cases _ Hc) as [E|[E|[E|[E|[E|[E|E]]]]]]; rewrite E; discriminate.
Qed.

Lemma slice_at_n s tbls tbl data a b c : p_tables s = tbls -> nth_error tbls (N.to_nat tbl) = Some data -> data = a ++ b ++ c ->
  1 <= lenN b -> slice_bytes s tbl (mkSlice (Some (lenN a)) (lenN b)) = Ok b.
Proof.
  intros Ht Hn Hd Hb. unfold slice_bytes. cbn [s_len s_ptr].
  destruct (N.eqb_spec (lenN b) 0); [lia|]. rewrite Ht, Hn, Hd.
  replace (N.to_nat (lenN a)) with (length a) by (unfold lenN; lia).
  replace (N.to_nat (lenN b)) with (length b) by (unfold lenN; lia). rewrite take_bytes_app. reflexivity.
Qed.

(** ---- the predefined scopes ---- *)
Definition dname (d : N) : Name :=
  nth (N.to_nat d) [(92, 0, 0, 0); (95, 71, 80, 69); (95, 80, 82, 95); (95, 83, 66, 95); (95, 83, 73, 95); (95, 84, 90, 95)] name_zero.
Definition dpay (d : N) : pay := mkPay opScopeBlock 113 0 (dname d) 0 0 None.

Lemma dseg_bytes d : 1 <= d <= 5 -> exists b0 b1 b2 b3, seg_bytes (dseg d) = [b0; b1; b2; b3] /\ dname d = (b0, b1, b2, b3) /\ is_lead b0 = true.
Proof.
  intros Hd. assert (Hc : d = 1 \/ d = 2 \/ d = 3 \/ d = 4 \/ d = 5) by lia.
  destruct Hc as [ -> | [ -> | [ -> | [ -> | -> ] ] ] ]; do 4 eexists; repeat split.
Qed.

Lemma find_default (nm : N -> Name) d rest : 1 <= d <= 5 -> (forall i, 1 <= i <= 5 -> nm i = dname i) ->
  find (fun c => name_eqb (dname d) (nm c)) ([1; 2; 3; 4; 5] ++ rest) = Some d.
Proof.
  intros Hd Hnm. cbn [app find]. rewrite !Hnm by lia.
  assert (Hc : d = 1 \/ d = 2 \/ d = 3 \/ d = 4 \/ d = 5) by lia.
  destruct Hc as [ -> | [ -> | [ -> | [ -> | -> ] ] ] ]; reflexivity.
Qed.

Lemma Find_default (t : T) g pl root d rest : Rep t g pl -> 1 <= d <= 5 ->
  kids g 0 = [1; 2; 3; 4; 5] ++ rest -> (forall i, 0 <= i <= 5 -> pget pl i = Some (dpay i)) ->
  Find t 0 (enc_name (sc_name root (dseg d))) = Ok d.
Proof.
  intros H Hd Hk Hp. pose proof (rep_R _ _ _ H) as HR.
  assert (Hlive0 : live t 0).
  { apply (R_live_glive _ _ HR). eapply rep_live; [exact H|apply (Hp 0); lia|discriminate]. }
  rewrite (Find_spec t g HR 0 _ Hlive0 Hlive0). f_equal.
  assert (Hnm : forall i, 1 <= i <= 5 -> name_at t i = dname i).
  { intros i Hi. destruct (rep_get _ _ _ H _ _ (Hp i ltac:(lia))) as (o & Ho & Epay). unfold name_at. rewrite Ho.
    rewrite (pay_name _ _ Epay). reflexivity. }
  destruct (dseg_bytes d Hd) as (b0 & b1 & b2 & b3 & Eb & En & Hl0).
  assert (Hlook : TreeSpec.lookup g (name_at t) 0 (b0, b1, b2, b3) = Some d).
  { unfold TreeSpec.lookup. rewrite Hk, <- En. apply find_default; assumption. }
  rewrite enc_sc_name, Eb. destruct root; cbn [app].
  - unfold resolve. change (92 =? 92) with true. cbv iota. unfold resolve_rel. cbn [segments]. rewrite Hl0. cbn [segments option_map].
    cbn [TreeSpec.walk]. rewrite Hlook. reflexivity.
  - unfold resolve.
    assert (E1 : b0 =? 92 = false).
    { unfold is_lead in Hl0. destruct (N.eqb_spec b0 92) as [->|]; [discriminate Hl0|reflexivity]. }
    assert (E2 : b0 =? 94 = false).
    { unfold is_lead in Hl0. destruct (N.eqb_spec b0 94) as [->|]; [discriminate Hl0|reflexivity]. }
    rewrite E1, E2.
    assert (Hlen : (1 <= length (g_kids g))%nat).
    { rewrite (rep_len_g _ _ _ H). pose proof (pget_lt _ _ _ (Hp 0 ltac:(lia))). lia. }
    destruct (length (g_kids g)) as [|n]; [lia|]. cbn [TreeSpec.search_up]. rewrite Hlook. reflexivity.
Qed.

(** ---- what stays below the root and what is moved below a predefined scope ---- *)
Section MergeTop.
Variable h tbl : N.
Variable tbls : list (list N).
Variable data : list N.
Hypothesis Hnth : nth_error tbls (N.to_nat tbl) = Some data.

Fixpoint keep (b off : N) (ts : list titem) : list rose :=
  match ts with
  | [] => []
  | x :: t => (match x with TItem it => lay2_item h tbl b off it | TScope _ _ _ _ => [] end) ++ keep (b + N.of_nat (tsz x)) (off + lenN (enc_titem x)) t
  end.

Fixpoint moved (b off : N) (ts : list titem) (d : N) : list rose :=
  match ts with
  | [] => []
  | x :: t => (match x with
               | TItem _ => []
               | TScope k root d' body => if d' =? d then lay2 h tbl (b + 3) (off + 1 + k + sc_len root) body else []
               end) ++ moved (b + N.of_nat (tsz x)) (off + lenN (enc_titem x)) t d
  end.

Definition D0' : list N := [1; 2; 3; 4; 5].

(** the state of the pool while the root's children are walked: [KT] = the trees of the items that stay, [M d] = the
    trees moved below scope [d] so far, [b] = first slot of the remaining items *)
Record MInv (g : ghost) (pl : list pay) (KT : list rose) (M : N -> list rose) (b off : N) (ts : list titem) : Prop := mkMInv {
  mi_root : kids g 0 = D0' ++ map ridx KT ++ map ridx (tlay2 h tbl b off ts);
  mi_pay : forall i, 0 <= i <= 5 -> pget pl i = Some (dpay i);
  mi_leaf : forall d, 1 <= d <= 5 -> kids g d = map ridx (M d);
  mi_rem : Forall (Desc g pl) (tlay2 h tbl b off ts);
  mi_KT : Forall (Desc g pl) KT;
  mi_M : forall d, 1 <= d <= 5 -> Forall (Desc g pl) (M d);
  mi_okK : Forall (rallr f1_okE) KT;
  mi_okM : forall d, 1 <= d <= 5 -> Forall (rallr f1_okE) (M d);
  mi_lowK : forall y, In y (rnodesl KT) -> 6 <= y < b;
  mi_lowM : forall d y, 1 <= d <= 5 -> In y (rnodesl (M d)) -> 6 <= y < b;
  mi_b : 6 <= b;
  mi_cover : forall y a, 6 <= y < b -> pget pl y = Some a -> y_op a <> opFreed ->
             In y (rnodesl KT) \/ exists d, 1 <= d <= 5 /\ In y (rnodesl (M d));
  mi_top : forall y, b + N.of_nat (tszs ts) <= y -> pget pl y = None
}.

(** [R]: the fuel the continuation still gets; at least 4: the loop step, [merge_scope] (two nested calls) and the walk over
    the moved objects each take one unit beyond the three per object that are counted. *)
Definition MSpec (ts : list titem) : Prop :=
  forall KT M b off s g pl f R dpre dpost (Q : pres -> pstate -> Prop),
  Rep (p_tree s) g pl -> MInv g pl KT M b off ts ->
  p_handle s = h -> p_tables s = tbls -> data = dpre ++ enc_titems ts ++ dpost -> off = lenN dpre ->
  forallb titem_okb ts = true ->
  (4 <= R)%nat -> (3 * tszs ts + length ts + R <= f)%nat ->
  (forall t' g' pl' m', Rep t' g' pl' ->
     MInv g' pl' (KT ++ keep b off ts) (fun d => M d ++ moved b off ts d) (b + N.of_nat (tszs ts)) (off + lenN (enc_titems ts)) [] ->
     wp False (mergeScope_loop (f - length ts) InvalidIndex ROk)
        (with_counters (with_tree s t') (p_resolvePasses s) m' (p_relocatedObjects s)) Q) ->
  wp False (mergeScope_loop f (hd InvalidIndex (map ridx (tlay2 h tbl b off ts))) ROk) s Q.

Lemma mspec_nil : MSpec [].
Proof.
  intros KT M b off s g pl f R dpre dpost Q H I Hh Htb Hdata Hoff Hok HR Hf K.
  cbn [tlay2 map hd length tszs fold_right enc_titems flat_map keep moved] in *. rewrite Nat.sub_0_r in K.
  specialize (K (p_tree s) g pl (p_mergedScopes s) H).
  assert (E : with_counters (with_tree s (p_tree s)) (p_resolvePasses s) (p_mergedScopes s) (p_relocatedObjects s) = s) by (destruct s; reflexivity).
  rewrite E in K. apply K. change (lenN (@nil N)) with 0. rewrite !N.add_0_r, app_nil_r.
  destruct I as [I1 I2 I3 I4 I5 I6 I7 I8 I9 I10 I11 I12 I13]. constructor; auto.
  - intros d Hd. rewrite app_nil_r. apply I3. exact Hd.
  - intros d Hd. rewrite app_nil_r. apply I6. exact Hd.
  - intros d Hd. rewrite app_nil_r. apply I8. exact Hd.
  - intros d y Hd Hy. rewrite app_nil_r in Hy. apply (I10 d y Hd Hy).
  - intros y a Hy Ha Hl. destruct (I12 y a Hy Ha Hl) as [A|(d & Hd & A)]; [left; exact A|right; exists d; split; [exact Hd|rewrite app_nil_r; exact A]].
Qed.

Lemma lay2_item_single h' tbl' b off it : exists a ks, lay2_item h' tbl' b off it = [RN b a ks].
Proof. destruct it as [d|bk k seg fa body|lk seg fa ta|seg k n elems]; [cbn [lay2_item]|rewrite lay2_blk|cbn [lay2_item]|cbn [lay2_item]]; eauto. Qed.

Lemma MInv_ext g pl KT KT' M M' b b' off off' ts :
  KT = KT' -> (forall d, M d = M' d) -> b = b' -> off = off' -> MInv g pl KT M b off ts -> MInv g pl KT' M' b' off' ts.
Proof.
  intros -> HM -> -> [I1 I2 I3 I4 I5 I6 I7 I8 I9 I10 I11 I12 I13]. constructor; auto.
  - intros d Hd. rewrite <- HM. apply I3. exact Hd.
  - intros d Hd. rewrite <- HM. apply I6. exact Hd.
  - intros d Hd. rewrite <- HM. apply I8. exact Hd.
  - intros d y Hd Hy. rewrite <- HM in Hy. apply (I10 d y Hd Hy).
  - intros y a Hy Ha Hl. destruct (I12 y a Hy Ha Hl) as [A|(d & Hd & A)]; [left; exact A|right; exists d; split; [exact Hd|rewrite <- HM; exact A]].
Qed.

Lemma mspec_item it rest : MSpec rest -> MSpec (TItem it :: rest).
Proof.
  intros IH KT M b off s g pl f R dpre dpost Q H I Hh Htb Hdata Hoff Hok HR Hf K.
  cbn [forallb titem_okb] in Hok. apply andb_prop in Hok. destruct Hok as [Hit Hok].
  pose proof I as [I1 I2 I3 I4 I5 I6 I7 I8 I9 I10 I11 I12 I13].
  rewrite tlay2_cons in I1, I4 |- *. cbn [tlay2_item tsz enc_titem] in I1, I4 |- *.
  rewrite tszs_cons in Hf. cbn [tsz length] in Hf.
  rewrite enc_titems_cons in Hdata. cbn [enc_titem] in Hdata.
  destruct (lay2_item_single h tbl b off it) as (a & ks & Etree). rewrite Etree in I1, I4 |- *. cbn [app map ridx hd] in I1, I4 |- *.
  set (B' := b + N.of_nat (isz it)) in *. set (off' := off + lenN (enc_item it)) in *.
  pose proof (Forall_inv I4) as Dtree. pose proof (Forall_inv_tail I4) as Drest.
  destruct (Desc_inv _ _ _ _ _ Dtree) as (Pb & Kb & _).
  assert (Hnodes : forall y, In y (rnodes (RN b a ks)) -> b <= y < B').
  { intros y Hy. assert (Hy' : In y (rnodesl (lay2 h tbl b off [it]))) by (rewrite lay2_single, Etree; unfold rnodesl; cbn [flat_map]; rewrite app_nil_r; exact Hy).
    apply lay2_nodes in Hy'. cbn [iszs fold_right] in Hy'. unfold B'. clear -Hy'; lia. }
  assert (Hoktree : rallr f1_okE (RN b a ks)).
  { assert (Hl : Forall (rallr f1_okE) (lay2 h tbl b off [it])) by (apply lay2_ok; cbn [forallb]; rewrite Hit; reflexivity).
    rewrite lay2_single, Etree in Hl. apply (Forall_inv Hl). }
  assert (Hsize : rsize (RN b a ks) = isz it).
  { pose proof (lay2_rsizes h tbl [it] b off) as E. rewrite lay2_single, Etree in E. cbn [rsizes fold_right iszs] in E. clear -E; lia. }
  destruct f as [|f1]; [clear -Hf; lia|]. rewrite mergeScope_loop_S.
  assert (Hlb : y_op a <> opFreed) by (apply rallr_inv in Hoktree; destruct Hoktree as (Hk1 & _); exact (f1_okE_live _ _ _ Hk1)).
  rewrite (rep_not_Inv _ _ _ _ _ H Pb).
  apply wp_bind. eapply wp_objectAt_rep; [exact H|exact Pb|exact Hlb|].
  assert (Hk0 : kids g 0 = (D0' ++ map ridx KT) ++ b :: map ridx (tlay2 h tbl B' off' rest)) by (rewrite I1, <- !app_assoc; reflexivity).
  apply wp_bind. eapply (wp_rdf_sib False 0 (D0' ++ map ridx KT) b _); [exact H|exact Hk0|]. intros o _ _ _ Hnext _. rewrite Hnext.
  apply wp_bind. eapply (wp_rdf_sib False 0 (D0' ++ map ridx KT) b _); [exact H|exact Hk0|]. intros o' Hidx _ _ _ _. rewrite Hidx.
  (* the sub-tree of the item holds no Scope directive *)
  apply wp_bind. eapply wp_conseq.
  { apply (proj1 (mergeS_all g pl h (fun y => In y (rnodes (RN b a ks)))
                   (fun y c Hy Hc => Desc_kids_in g pl _ Dtree y c Hy Hc)
                   (fun y Hy => ltac:(pose proof (Hnodes y Hy); clear -H0 I11; lia))
                   (fun y a' Hy Ha' _ => ltac:(destruct (rallr_lookup g pl f1_okE _ Dtree Hoktree y Hy) as (a2 & ks2 & D2 & O2);
                                                destruct (Desc_inv _ _ _ _ _ D2) as (P2 & _ & _); assert (a2 = a') by congruence; subst a2;
                                                exact (merge_ok_f1 h _ _ _ O2))) f1) b a s H Hh).
    - rewrite rnodes_eq. left. reflexivity.
    - exact Pb.
    - exact Hlb.
    - apply (fwalk_size g pl _ Dtree). rewrite Hsize. clear -Hf; lia. }
  intros r s' (-> & ->). cbv iota.
  eapply (IH (KT ++ [RN b a ks]) M B' off' s g pl f1 R (dpre ++ enc_item it) dpost Q); [exact H| |exact Hh|exact Htb| | |exact Hok|exact HR|clear -Hf; lia|].
  - constructor; auto.
    + rewrite I1, map_app. cbn [map ridx]. rewrite <- !app_assoc. reflexivity.
    + apply Forall_app. split; [exact I5|constructor; [exact Dtree|constructor]].
    + apply Forall_app. split; [exact I7|constructor; [exact Hoktree|constructor]].
    + intros y Hy. rewrite rnodesl_app in Hy. apply in_app_or in Hy. destruct Hy as [Hy|Hy].
      * pose proof (I9 y Hy). unfold B'. clear -H0; lia.
      * unfold rnodesl in Hy. cbn [flat_map] in Hy. rewrite app_nil_r in Hy. pose proof (Hnodes y Hy). clear -H0 I11; lia.
    + intros d y Hd Hy. pose proof (I10 d y Hd Hy). unfold B'. clear -H0; lia.
    + unfold B'. clear -I11; lia.
    + intros y a' Hy Ha' Hl'. destruct (N.ltb_spec y b) as [Hlt|Hge].
      * destruct (I12 y a' ltac:(clear -Hlt Hy; lia) Ha' Hl') as [A|A]; [left; rewrite rnodesl_app; apply in_or_app; left; exact A|right; exact A].
      * left. rewrite rnodesl_app. apply in_or_app. right.
        assert (Hin : In y (rnodesl (lay2 h tbl b off [it]))) by (apply lay2_nodes_all; cbn [iszs fold_right]; unfold B' in Hy; clear -Hge Hy; lia).
        rewrite lay2_single, Etree in Hin. exact Hin.
    + intros y Hy. apply I13. rewrite tszs_cons. cbn [tsz]. unfold B' in Hy. clear -Hy; lia.
  - rewrite Hdata, <- !app_assoc. reflexivity.
  - unfold off'. rewrite Hoff. symmetry. apply lenN_app.
  - intros t' g' pl' m' H' I'. replace (f1 - length rest)%nat with (S f1 - length (TItem it :: rest))%nat by (cbn [length]; clear; lia).
    apply (K t' g' pl' m' H'). revert I'. apply MInv_ext.
    + cbn [keep]. rewrite Etree. fold B' off'. rewrite <- app_assoc. reflexivity.
    + intros d. cbn [moved app tsz enc_titem]. reflexivity.
    + rewrite tszs_cons. cbn [tsz]. unfold B'. clear; lia.
    + rewrite enc_titems_cons, lenN_app. cbn [enc_titem]. unfold off'. clear; lia.
Qed.

Lemma forest_kids_in g pl l : Forall (Desc g pl) l -> forall y c, In y (rnodesl l) -> In c (kids g y) -> In c (rnodesl l).
Proof.
  intros HD y c Hy Hc. unfold rnodesl in *. apply in_flat_map in Hy. destruct Hy as (r & Hr & Hyr).
  apply in_flat_map. exists r. split; [exact Hr|]. rewrite Forall_forall in HD. eapply Desc_kids_in; eauto.
Qed.

Lemma forest_lookup g pl l : Forall (Desc g pl) l -> Forall (rallr f1_okE) l -> forall y, In y (rnodesl l) ->
  exists a ks, Desc g pl (RN y a ks) /\ f1_okE (RN y a ks).
Proof.
  intros HD HO y Hy. unfold rnodesl in Hy. apply in_flat_map in Hy. destruct Hy as (r & Hr & Hyr).
  rewrite Forall_forall in HD, HO. apply (rallr_lookup g pl f1_okE r (HD r Hr) (HO r Hr) y Hyr).
Qed.

Lemma mspec_scope k root d body rest : MSpec rest -> MSpec (TScope k root d body :: rest).
Proof.
  intros IH KT M b off s g pl f R dpre dpost Q H I Hh Htb Hdata Hoff Hok HR Hf K.
  cbn [forallb titem_okb] in Hok. apply andb_prop in Hok. destruct Hok as [Hd_ok Hok].
  apply andb_prop in Hd_ok. destruct Hd_ok as [Hx Hbody_ok]. apply andb_prop in Hx. destruct Hx as [Hx Hpk].
  apply andb_prop in Hx. destruct Hx as [Hd1 Hd5]. apply N.leb_le in Hd1. apply N.leb_le in Hd5. apply pkglen_okb_adm in Hpk.
  pose proof I as [I1 I2 I3 I4 I5 I6 I7 I8 I9 I10 I11 I12 I13].
  rewrite tlay2_cons in I1, I4. cbn [tlay2_item tsz enc_titem] in I1, I4. cbn [app map ridx] in I1.
  rewrite tszs_cons in Hf. cbn [tsz length] in Hf.
  rewrite enc_titems_cons in Hdata. cbn [enc_titem] in Hdata.
  set (nl := sc_len root) in *. set (seg := dseg d) in *. unfold sc_body in *. fold seg in Hdata, Hpk, I1, I4.
  set (v := k + lenN (enc_name (sc_name root seg) ++ enc_items body)) in *.
  pose proof (lenN_enc_pkglen k v Hpk) as Hlk.
  set (off1 := off + 1 + k + nl) in *.
  set (B' := b + N.of_nat (3 + iszs body)) in *.
  set (off' := off + lenN (enc_op OP_SCOPE ++ enc_pkglen k v ++ enc_name (sc_name root seg) ++ enc_items body)) in *.
  assert (Hnl : 4 <= nl <= 5) by (unfold nl, sc_len; destruct root; clear; lia).
  pose proof (Forall_inv I4) as DD. pose proof (Forall_inv_tail I4) as Drest.
  destruct (Desc_inv _ _ _ _ _ DD) as (PD & KD & HD2). cbn [map ridx] in KD.
  pose proof (Forall_inv HD2) as DP. pose proof (Forall_inv (Forall_inv_tail HD2)) as DS. clear HD2.
  destruct (Desc_inv _ _ _ _ _ DP) as (PP & KP & _). destruct (Desc_inv _ _ _ _ _ DS) as (PS & KS & HDbody). cbn [map] in KP.
  set (ms := map ridx (lay2 h tbl (b + 3) off1 body)) in *.
  set (l1 := D0' ++ map ridx KT). set (l2 := map ridx (tlay2 h tbl B' off' rest)) in *.
  assert (Hk0 : kids g 0 = l1 ++ b :: l2) by (rewrite I1; unfold l1; rewrite <- !app_assoc; reflexivity).
  assert (Hbody_nodes : forall y, In y (rnodesl (lay2 h tbl (b + 3) off1 body)) -> b + 3 <= y < B').
  { intros y Hy. apply lay2_nodes in Hy. unfold B'. clear -Hy. lia. }
  assert (Hbody_okf : Forall (rallr f1_okE) (lay2 h tbl (b + 3) off1 body)) by (apply lay2_ok; exact Hbody_ok).
  destruct f as [|f1]; [clear -Hf; lia|]. rewrite tlay2_cons. cbn [tlay2_item app map ridx hd]. rewrite mergeScope_loop_S.
  rewrite (rep_not_Inv _ _ _ _ _ H PD).
  apply wp_bind. eapply wp_objectAt_rep; [exact H|exact PD|discriminate|].
  apply wp_bind. eapply (wp_rdf_sib False 0 l1 b l2); [exact H|exact Hk0|]. intros o _ _ _ Hnext _. rewrite Hnext.
  apply wp_bind. eapply (wp_rdf_sib False 0 l1 b l2); [exact H|exact Hk0|]. intros o' Hidx _ _ _ _. rewrite Hidx.
  (* the directive is merged *)
  destruct f1 as [|f2]; [clear -Hf; lia|].
  assert (Hsl : slice_bytes s tbl (mkSlice (Some (off + 1 + k)) nl) = Ok (enc_name (sc_name root seg))).
  { replace (off + 1 + k) with (lenN (dpre ++ enc_op OP_SCOPE ++ enc_pkglen k v)).
    2:{ rewrite !lenN_app, Hlk, Hoff. change (lenN (enc_op OP_SCOPE)) with 1. clear. lia. }
    replace nl with (lenN (enc_name (sc_name root seg))) by (apply lenN_sc_name).
    eapply (slice_at_n _ tbls tbl data _ _ (enc_items body ++ enc_titems rest ++ dpost)); [exact Htb|exact Hnth| |rewrite lenN_sc_name; fold nl; clear -Hnl; lia].
    rewrite Hdata, <- !app_assoc. reflexivity. }
  assert (HFind : Find (p_tree s) 0 (enc_name (sc_name root seg)) = Ok d).
  { eapply (Find_default _ g pl root d (map ridx KT ++ b :: l2)); [exact H|clear -Hd1 Hd5; lia|rewrite Hk0; unfold l1; rewrite <- app_assoc; reflexivity|exact I2]. }
  apply wp_bind.
  eapply (merge_scope f2 h b (b + 1) (b + 2) d ms (map ridx (M d)) l1 l2 (enc_name (sc_name root seg)) tbl (mkSlice (Some (off + 1 + k)) nl) s g pl
            (dpay 0) (scp_pay h off) (pthn_pay h tbl (off + 1 + k) nl) (sb_pay h off1) (dpay d));
    [exact H|exact Hh|exact Hk0|exact KD|exact KP|exact KS|apply I3; clear -Hd1 Hd5; lia|apply I2; clear; lia|discriminate|exact PD|reflexivity|reflexivity|reflexivity
    |exact PP|discriminate|reflexivity|exact Hsl|exact PS|discriminate|apply I2; clear -Hd1 Hd5; lia|reflexivity| |..|exact HFind| |];
    try (clear -Hd1 Hd5 I11; lia).
  { unfold l1, D0'. apply in_or_app. left. cbn [In]. clear -Hd1 Hd5. lia. }
  { intros m Hm Hdesc. unfold ms in Hm. apply in_map_iff in Hm. destruct Hm as (r & <- & Hr).
    rewrite Forall_forall in HDbody. pose proof (desc_in_tree g pl r (HDbody r Hr) d Hdesc) as Hin.
    assert (Hin' : In d (rnodesl (lay2 h tbl (b + 3) off1 body))) by (unfold rnodesl; apply in_flat_map; exists r; auto).
    apply Hbody_nodes in Hin'. clear -Hin' Hd5 I11. lia. }
  intros t1 g1 H1 L1 F1 K1.
  set (pl1 := pupd (pupd (pupd pl (b + 1) FR) (b + 2) FR) b FR) in *.
  assert (Hp1 : forall y, y <> b -> y <> b + 1 -> y <> b + 2 -> pget pl1 y = pget pl y).
  { intros y A B C. unfold pl1. rewrite !pget_pupd. apply N.eqb_neq in A, B, C. rewrite A, B, C. reflexivity. }
  assert (Hk1 : forall y, y <> d -> y <> 0 -> y <> b -> y <> b + 1 -> y <> b + 2 -> kids g1 y = kids g y).
  { intros y A B C D E. rewrite K1. apply N.eqb_neq in A, B, C, D, E. rewrite A, B, C, D, E. reflexivity. }
  assert (Hframe : forall l, Forall (Desc g pl) l -> (forall y, In y (rnodesl l) -> 6 <= y /\ (y < b \/ b + 3 <= y)) -> Forall (Desc g1 pl1) l).
  { intros l HDl Hl. apply (Desc_frame_l g pl); [exact HDl|]. intros y Hy. destruct (Hl y Hy) as (A & B).
    split; [apply Hk1; clear -A B Hd5; lia|apply Hp1; clear -B; lia]. }
  assert (HDbody1 : Forall (Desc g1 pl1) (lay2 h tbl (b + 3) off1 body)).
  { apply Hframe; [exact HDbody|]. intros y Hy. apply Hbody_nodes in Hy. clear -Hy I11. lia. }
  (* the walk goes on over the moved objects *)
  set (s1 := with_counters (with_tree s t1) (p_resolvePasses s) (w32 (p_mergedScopes s + 1)) (p_relocatedObjects s)).
  assert (Hkd1 : kids g1 d = map ridx (M d) ++ ms).
  { rewrite K1, N.eqb_refl. reflexivity. }
  eapply wp_conseq.
  { apply (proj2 (mergeS_all g1 pl1 h (fun y => In y (rnodesl (lay2 h tbl (b + 3) off1 body)))
                   (fun y c Hy Hc => forest_kids_in g1 pl1 _ HDbody1 y c Hy Hc)
                   (fun y Hy => ltac:(pose proof (Hbody_nodes y Hy) as Hy'; clear -Hy' I11; lia))
                   (fun y a' Hy Ha' _ => ltac:(destruct (forest_lookup g1 pl1 _ HDbody1 Hbody_okf y Hy) as (a2 & ks2 & D2 & O2);
                                                destruct (Desc_inv _ _ _ _ _ D2) as (P2 & _ & _); assert (a2 = a') by congruence; subst a2;
                                                exact (merge_ok_f1 h _ _ _ O2))) f2) d (map ridx (M d)) ms ROk s1 H1 Hh Hkd1).
    - intros c Hc. unfold ms in Hc. apply in_map_iff in Hc. destruct Hc as (r & <- & Hr). unfold rnodesl. apply in_flat_map.
      exists r. split; [exact Hr|]. destruct r. rewrite rnodes_eq. left. reflexivity.
    - apply (floop_size g1 pl1 _ _ HDbody1). rewrite lay2_rsizes. clear -Hf. lia. }
  intros r s' (-> & ->). cbv iota.
  (* the remaining items *)
  set (M' := fun d' => if d' =? d then M d ++ lay2 h tbl (b + 3) off1 body else M d').
  eapply (IH KT M' B' off' s1 g1 pl1 (S f2) R (dpre ++ enc_op OP_SCOPE ++ enc_pkglen k v ++ enc_name (sc_name root seg) ++ enc_items body) dpost Q);
    [exact H1| |exact Hh|exact Htb| | |exact Hok|exact HR|clear -Hf; lia|].
  - constructor.
    + rewrite K1. destruct (N.eqb_spec 0 d); [clear -Hd1 e; lia|]. rewrite N.eqb_refl. unfold l1, l2. rewrite <- app_assoc. reflexivity.
    + intros i Hi. rewrite Hp1 by (clear -Hi I11; lia). apply I2. exact Hi.
    + intros d' Hd'. unfold M'. destruct (N.eqb_spec d' d) as [->|Hne]; [rewrite Hkd1, map_app; reflexivity|].
      rewrite Hk1 by (clear -Hne Hd' I11; lia). apply I3. exact Hd'.
    + apply Hframe; [exact Drest|]. intros y Hy. apply tlay2_nodes in Hy. unfold B' in Hy. clear -Hy I11. lia.
    + apply Hframe; [exact I5|]. intros y Hy. pose proof (I9 y Hy) as Hy'. clear -Hy'. lia.
    + intros d' Hd'. unfold M'. destruct (N.eqb_spec d' d) as [->|Hne].
      * apply Forall_app. split; [|exact HDbody1]. apply Hframe; [apply I6; exact Hd'|]. intros y Hy. pose proof (I10 d y Hd' Hy) as Hy'. clear -Hy'. lia.
      * apply Hframe; [apply I6; exact Hd'|]. intros y Hy. pose proof (I10 d' y Hd' Hy) as Hy'. clear -Hy'. lia.
    + exact I7.
    + intros d' Hd'. unfold M'. destruct (N.eqb_spec d' d) as [->|Hne]; [apply Forall_app; split; [apply I8; exact Hd'|exact Hbody_okf]|apply I8; exact Hd'].
    + intros y Hy. pose proof (I9 y Hy) as Hy'. unfold B'. clear -Hy'. lia.
    + intros d' y Hd' Hy. unfold M' in Hy. destruct (N.eqb_spec d' d) as [->|Hne].
      * rewrite rnodesl_app in Hy. apply in_app_or in Hy. destruct Hy as [Hy|Hy]; [pose proof (I10 d y Hd' Hy) as Hy'; unfold B'; clear -Hy'; lia|apply Hbody_nodes in Hy; clear -Hy I11; lia].
      * pose proof (I10 d' y Hd' Hy) as Hy'. unfold B'. clear -Hy'. lia.
    + unfold B'. clear -I11. lia.
    + intros y a' Hy Ha' Hl'.
      destruct (N.ltb_spec y b) as [Hlt|Hge].
      * rewrite Hp1 in Ha' by (clear -Hlt; lia). destruct (I12 y a' (conj (proj1 Hy) Hlt) Ha' Hl') as [A|(d' & Hd' & A)]; [left; exact A|right].
        exists d'. split; [exact Hd'|]. unfold M'. destruct (N.eqb_spec d' d) as [->|]; [rewrite rnodesl_app; apply in_or_app; left; exact A|exact A].
      * destruct (N.ltb_spec y (b + 3)) as [Hlt3|Hge3].
        -- exfalso. apply Hl'. unfold pl1 in Ha'. rewrite !pget_pupd in Ha'.
           assert (Hc : y = b \/ y = b + 1 \/ y = b + 2) by (clear -Hge Hlt3; lia).
           destruct Hc as [-> | [-> | ->]].
           ++ rewrite N.eqb_refl in Ha'. destruct (N.eqb_spec b (b + 2)) as [e|_]; [clear -e; lia|]. destruct (N.eqb_spec b (b + 1)) as [e|_]; [clear -e; lia|].
              rewrite PD in Ha'. cbn [option_map] in Ha'. inversion Ha'. reflexivity.
           ++ destruct (N.eqb_spec (b + 1) b) as [e|_]; [clear -e; lia|]. destruct (N.eqb_spec (b + 1) (b + 2)) as [e|_]; [clear -e; lia|]. rewrite N.eqb_refl in Ha'.
              rewrite PP in Ha'. cbn [option_map] in Ha'. inversion Ha'. reflexivity.
           ++ destruct (N.eqb_spec (b + 2) b) as [e|_]; [clear -e; lia|]. rewrite N.eqb_refl in Ha'. destruct (N.eqb_spec (b + 2) (b + 1)) as [e|_]; [clear -e; lia|].
              rewrite PS in Ha'. cbn [option_map] in Ha'. inversion Ha'. reflexivity.
        -- right. exists d. split; [exact (conj Hd1 Hd5)|]. unfold M'. rewrite N.eqb_refl, rnodesl_app. apply in_or_app. right.
           apply lay2_nodes_all. unfold B' in Hy. clear -Hy Hge3. lia.
    + intros y Hy. unfold B' in Hy. rewrite Hp1 by (clear -Hy; lia). apply I13. rewrite tszs_cons. cbn [tsz]. clear -Hy. lia.
  - rewrite Hdata, <- !app_assoc. reflexivity.
  - unfold off'. rewrite Hoff. symmetry. apply lenN_app.
  - intros t' g' pl' m' H' I'. replace (S f2 - length rest)%nat with (S (S f2) - length (TScope k root d body :: rest))%nat by (cbn [length]; clear; lia).
    apply (K t' g' pl' m' H'). revert I'. apply MInv_ext.
    + cbn [keep app tsz enc_titem]. unfold sc_body. fold seg v B' off'. reflexivity.
    + intros d'. cbn [moved tsz enc_titem]. unfold sc_body. fold seg v nl off1 B' off'. unfold M'.
      rewrite (N.eqb_sym d d'). destruct (N.eqb_spec d' d) as [->|Hne]; [rewrite <- app_assoc; reflexivity|reflexivity].
    + rewrite tszs_cons. cbn [tsz]. unfold B'. clear. lia.
    + rewrite enc_titems_cons, lenN_app. cbn [enc_titem]. unfold sc_body. fold seg v. unfold off'. clear. lia.
Qed.

Theorem mspec_all : forall ts, MSpec ts.
Proof.
  induction ts as [|[it|k root d body] rest IH].
  - apply mspec_nil.
  - apply mspec_item. exact IH.
  - apply mspec_scope. exact IH.
Qed.
End MergeTop.
