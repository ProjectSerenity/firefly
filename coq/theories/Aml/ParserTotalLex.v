(** How far the lexer functions move the read offset.

    For a reader that satisfies [rok] (the reader invariant, a table at least 256 MiB + 1 KiB below
    4 GiB, offset within the table) every lexer function returns, keeps the window, never moves the
    offset backwards, keeps it within the table and - when it reports success - consumes at least one
    byte.  These are the facts behind the allocation bound of the first pass (every object created
    is paid for by a consumed byte) and behind its fuel bound. *)
From Coq Require Import NArith Arith List Bool Lia.
From Coq Require Import ZifyBool ZifyN ZifyNat.
From FF Require Import Lib.Word Gen.Consts_device_acpi_aml Aml.Stream Aml.Lex Aml.LexProofs Aml.LexRoundtrip.
Import ListNotations.
Local Open Scope N_scope.

Definition small_table (r : reader) : Prop := r_len r + 0x10000400 <= two32.
Definition rok (r : reader) : Prop := reader_wf r /\ small_table r /\ r_offset r <= r_len r.
Definition adv (r r1 : reader) : Prop := same_window r r1 /\ r_offset r <= r_offset r1 /\ r_offset r1 <= r_len r1.

Lemma rok_adv r r1 : rok r -> adv r r1 -> rok r1.
Proof.
  intros (W & S & O) (A & L & L'). split; [eapply wf_same_window; eauto|]. split; auto.
  destruct A as (_ & E & _). unfold small_table in *. rewrite E. exact S.
Qed.

Lemma adv_refl r : rok r -> adv r r.
Proof. intros (W & S & O). split; [apply same_window_refl|]. split; [lia|exact O]. Qed.

Lemma adv_trans a b c : adv a b -> adv b c -> adv a c.
Proof. intros (A1 & L1 & M1) (A2 & L2 & M2). split; [eapply same_window_trans; eauto|]. split; [lia|exact M2]. Qed.

Lemma small_no_wrap r : small_table r -> no_wrap r.
Proof. unfold small_table, no_wrap, two32. lia. Qed.

Lemma adv_len r r1 : adv r r1 -> r_len r1 = r_len r.
Proof. intros ((_ & E & _) & _). exact E. Qed.

Lemma rd1 r : rok r ->
  (readByte r = Ok (None, r) /\ r_pkgEnd r <= r_offset r) \/
  (exists b, readByte r = Ok (Some b, set_offset_raw r (r_offset r + 1)) /\ r_offset r < r_pkgEnd r /\ b < 256 /\
             adv r (set_offset_raw r (r_offset r + 1))).
Proof.
  intros (W & S & O). destruct (readByte_total r W) as [(E & R)|(E & b & Hb & R & Lt)].
  - left. split; auto. unfold eof in E. apply N.leb_le in E. exact E.
  - right. exists b. split; auto. split; auto. split; [eapply byte_at_byte; eauto|].
    split; [apply same_window_set_offset|]. cbn. destruct W as (_ & W2 & _). lia.
Qed.

Lemma land15 x : N.land x 0xf < 16.
Proof. change 0xf with (N.ones 4). rewrite N.land_ones. apply N.mod_lt. discriminate. Qed.

(** ---- parsePkgLength ---- *)
Lemma fail_adv r r' : rok r -> adv r r' ->
  adv r (setOffset r' (r_offset r)) /\ r_offset (setOffset r' (r_offset r)) = r_offset r.
Proof.
  intros (W & S & O) (A & L & L').
  assert (E : r_offset (setOffset r' (r_offset r)) = r_offset r).
  { apply setOffset_noclamp. destruct A as (_ & E & _). rewrite E. exact O. }
  split; auto. split; [eapply same_window_trans; [exact A|apply same_window_setOffset]|].
  rewrite E. split; [lia|]. destruct A as (_ & E' & _). cbn. rewrite E'. exact O.
Qed.

Lemma parsePkgLength_off r : rok r ->
  exists v ok r1, parsePkgLength r = Ok (v, ok, r1) /\ adv r r1 /\
    (ok = true -> r_offset r < r_offset r1 /\ v < 0x10000000) /\ (ok = false -> r_offset r1 = r_offset r).
Proof.
  intros H. unfold parsePkgLength.
  destruct (rd1 r H) as [(E & _)|(lead & E & Lt & Hb & A1)]; rewrite E; cbn [bind].
  { destruct (fail_adv r r H (adv_refl r H)) as (F1 & F2).
    do 3 eexists. split; [reflexivity|]. split; [exact F1|]. split; [discriminate|auto]. }
  set (r1 := set_offset_raw r (r_offset r + 1)) in *.
  assert (H1 : rok r1) by (eapply rok_adv; eauto).
  destruct (N.shiftr lead 6 =? 0).
  { do 3 eexists. split; [reflexivity|]. split; [exact A1|]. split; [|discriminate].
    intros _. cbn. lia. }
  destruct (rd1 r1 H1) as [(E1 & _)|(b1 & E1 & Lt1 & Hb1 & A2)]; rewrite E1; cbn [bind].
  { destruct (fail_adv r r1 H A1) as (F1 & F2).
    do 3 eexists. split; [reflexivity|]. split; [exact F1|]. split; [discriminate|auto]. }
  set (r2 := set_offset_raw r1 (r_offset r1 + 1)) in *.
  assert (A02 : adv r r2) by (eapply adv_trans; eauto).
  assert (H2 : rok r2) by (eapply rok_adv; eauto).
  pose proof (land15 lead) as Hlow.
  destruct (N.shiftr lead 6 =? 1).
  { do 3 eexists. split; [reflexivity|]. split; [exact A02|]. split; [|discriminate].
    intros _. rewrite lor2 by exact Hlow. cbn. lia. }
  destruct (rd1 r2 H2) as [(E2 & _)|(b2 & E2 & Lt2 & Hb2 & A3)]; rewrite E2; cbn [bind].
  { destruct (fail_adv r r2 H A02) as (F1 & F2).
    do 3 eexists. split; [reflexivity|]. split; [exact F1|]. split; [discriminate|auto]. }
  set (r3 := set_offset_raw r2 (r_offset r2 + 1)) in *.
  assert (A03 : adv r r3) by (eapply adv_trans; eauto).
  assert (H3 : rok r3) by (eapply rok_adv; eauto).
  destruct (N.shiftr lead 6 =? 2).
  { do 3 eexists. split; [reflexivity|]. split; [exact A03|]. split; [|discriminate].
    intros _. rewrite lor3 by (auto; exact Hlow). cbn. lia. }
  destruct (rd1 r3 H3) as [(E3 & _)|(b3 & E3 & Lt3 & Hb3 & A4)]; rewrite E3; cbn [bind].
  { destruct (fail_adv r r3 H A03) as (F1 & F2).
    do 3 eexists. split; [reflexivity|]. split; [exact F1|]. split; [discriminate|auto]. }
  set (r4 := set_offset_raw r3 (r_offset r3 + 1)) in *.
  assert (A04 : adv r r4) by (eapply adv_trans; eauto).
  do 3 eexists. split; [reflexivity|]. split; [exact A04|]. split; [|discriminate].
  intros _. rewrite lor4 by (auto; exact Hlow). cbn. lia.
Qed.

(** ---- parseNumConstant ---- *)
Lemma parseNum_go_off cnt : forall c acc r, rok r ->
  exists v ok r1, parseNum_go cnt c acc r = Ok (v, ok, r1) /\ adv r r1 /\
     (ok = true -> r_offset r1 = r_offset r + N.of_nat cnt).
Proof.
  induction cnt as [|cnt IH]; intros c acc r H; cbn [parseNum_go].
  - exists acc, true, r. split; auto. split; [apply adv_refl; auto|]. intros _. lia.
  - destruct (rd1 r H) as [(E & _)|(b & E & Lt & Hb & A)]; rewrite E; cbn [bind].
    + exists 0, false, r. split; auto. split; [apply adv_refl; auto|discriminate].
    + destruct (IH (c + 1) (N.lor acc (w64 (N.shiftl b (w8 (c * 8))))) _ (rok_adv _ _ H A)) as (v & ok & r1 & E1 & A1 & K).
      exists v, ok, r1. split; auto. split; [eapply adv_trans; eauto|]. intros Hk. rewrite (K Hk). cbn. lia.
Qed.

Lemma parseNumConstant_off k r : rok r ->
  exists v ok r1, parseNumConstant k r = Ok (v, ok, r1) /\ adv r r1 /\ (ok = true -> r_offset r1 = r_offset r + k).
Proof.
  intros H. destruct (parseNum_go_off (N.to_nat k) 0 0 r H) as (v & ok & r1 & E & A & K).
  exists v, ok, r1. split; auto. split; auto. intros Hk. rewrite (K Hk). lia.
Qed.

(** ---- parseString ---- *)
Lemma parseString_go_off fuel : forall ptr len r s ok r1, rok r ->
  parseString_go fuel ptr len r = Ok (s, ok, r1) -> adv r r1 /\ (ok = true -> r_offset r < r_offset r1).
Proof.
  induction fuel as [|fuel IH]; intros ptr len r s ok r1 H E; cbn [parseString_go] in E; [discriminate|].
  destruct (rd1 r H) as [(R & _)|(b & R & Lt & Hb & A)]; rewrite R in E; cbn [bind] in E.
  - inversion E; subst. split; [apply adv_refl; auto|discriminate].
  - destruct (b =? 0). { inversion E; subst. split; auto. intros _. cbn. lia. }
    destruct ((1 <=? b) && (b <=? 0x7f)).
    + destruct (IH _ _ _ _ _ _ (rok_adv _ _ H A) E) as (A1 & K). split; [eapply adv_trans; eauto|].
      intros Hk. specialize (K Hk). cbn in K. lia.
    + inversion E; subst. split; auto. discriminate.
Qed.

Lemma parseString_off r : rok r ->
  exists s ok r1, parseString r = Ok (s, ok, r1) /\ adv r r1 /\ (ok = true -> r_offset r < r_offset r1).
Proof.
  intros H. pose proof H as (W & _ & _).
  pose proof (safe2_parseString r r W W (sim_refl r)) as SS.
  destruct (parseString r) as [[[s ok] r1]| |] eqn:E; try contradiction. clear SS.
  exists s, ok, r1. split; auto. unfold parseString in E.
  destruct (dataPtr r) as [ptr| |]; cbn [bind] in E; try discriminate.
  eapply parseString_go_off; eauto.
Qed.

(** ---- nextOpcode ---- *)
Lemma nextOpcode_off r : rok r ->
  exists op ok r1, nextOpcode r = Ok (op, ok, r1) /\ adv r r1 /\
    (ok = true -> r_offset r < r_offset r1 /\ op <= 0x1fe /\
                  exists idx, opcodeTableIndex op false = Some idx /\ idx <> aml_badOpcode) /\
    (ok = false -> r_offset r1 = r_offset r /\ op = 0xffff).
Proof.
  intros H. pose proof H as (W & S & O). unfold nextOpcode.
  destruct (rd1 r H) as [(E & _)|(next & E & Lt & Hb & A1)]; rewrite E; cbn [bind].
  { do 3 eexists. split; [reflexivity|]. split; [apply adv_refl; auto|]. split; [discriminate|auto]. }
  set (r1 := set_offset_raw r (r_offset r + 1)) in *.
  assert (H1 : rok r1) by (eapply rok_adv; eauto).
  assert (O32 : r_offset r < two32) by (unfold small_table, two32 in *; lia).
  destruct (next =? aml_extOpPrefix).
  - destruct (rd1 r1 H1) as [(E1 & _)|(next2 & E1 & Lt1 & Hb1 & A2)]; rewrite E1; cbn [bind].
    + unfold unreadByte. assert (Hz : r_offset r1 =? 0 = false) by (apply N.eqb_neq; cbn; lia). rewrite Hz. cbn [fst].
      do 3 eexists. split; [reflexivity|]. cbn [r_offset set_offset_raw r1].
      split; [|split; [discriminate|intros _; split; [lia|reflexivity]]].
      split; [repeat split|]. cbn. split; lia.
    + set (r2 := set_offset_raw r1 (r_offset r1 + 1)) in *.
      assert (A02 : adv r r2) by (eapply adv_trans; eauto).
      assert (Hop : w16 (255 + next2) <= 0x1fe) by (unfold w16, two16; lia).
      destruct (opcodeTableIndex_total _ Hop) as (i & Ei). rewrite Ei.
      destruct (N.eqb_spec i aml_badOpcode) as [Eb|Eb].
      * assert (Eo : w32 (r_offset r2 + two32 - 2) = r_offset r).
        { cbn. unfold w32. unfold two32 in *. lia. }
        rewrite Eo. destruct (fail_adv r r2 H A02) as (F1 & F2).
        do 3 eexists. split; [reflexivity|]. split; [exact F1|]. split; [discriminate|auto].
      * do 3 eexists. split; [reflexivity|]. split; [exact A02|]. split; [|discriminate].
        intros _. split; [cbn; lia|]. split; [exact Hop|]. exists i. auto.
  - assert (Hop : next <= 0x1fe) by lia.
    destruct (opcodeTableIndex_total _ Hop) as (i & Ei). rewrite Ei.
    destruct (N.eqb_spec i aml_badOpcode) as [Eb|Eb].
    * assert (Eo : w32 (r_offset r1 + two32 - 1) = r_offset r).
      { cbn. unfold w32. unfold two32 in *. lia. }
      rewrite Eo. destruct (fail_adv r r1 H A1) as (F1 & F2).
      do 3 eexists. split; [reflexivity|]. split; [exact F1|]. split; [discriminate|auto].
    * do 3 eexists. split; [reflexivity|]. split; [exact A1|]. split; [|discriminate].
      intros _. split; [cbn; lia|]. split; [exact Hop|]. exists i. auto.
Qed.

(** ---- parseNameString ---- *)
Lemma skipPrefix_go_adv fuel : forall r ok r1, rok r -> skipPrefix_go fuel r = Ok (ok, r1) ->
  adv r r1 /\ (ok = true -> r_offset r1 < r_pkgEnd r1).
Proof.
  induction fuel as [|fuel IH]; intros r ok r1 H E; cbn [skipPrefix_go] in E; [discriminate|].
  unfold peekByte in E. destruct (eof r) eqn:Ee; cbn [bind] in E.
  - inversion E; subst. split; [apply adv_refl; auto|discriminate].
  - destruct (byte_at (r_data r) (r_offset r)) as [b|]; cbn [bind] in E; [|discriminate].
    destruct ((b =? 0x5c) || (b =? 0x5e)).
    + destruct (rd1 r H) as [(R & Hge)|(b' & R & Lt & Hb & A)].
      * unfold eof in Ee. apply N.leb_gt in Ee. lia.
      * rewrite R in E. cbn [bind] in E. destruct (IH _ _ _ (rok_adv _ _ H A) E) as (A1 & K).
        split; [eapply adv_trans; eauto|exact K].
    + inversion E; subst. split; [apply adv_refl; auto|]. intros _. unfold eof in Ee. apply N.leb_gt in Ee. exact Ee.
Qed.

Lemma setOffset_adv r e : rok r -> r_offset r <= e -> e <= r_pkgEnd r -> adv r (setOffset r e) /\ r_offset (setOffset r e) = e.
Proof.
  intros (W & S & O) L1 L2. destruct W as (W1 & W2 & W3 & W4).
  assert (E : r_offset (setOffset r e) = e) by (apply setOffset_noclamp; lia).
  split; auto. split; [apply same_window_setOffset|]. rewrite E. split; auto. cbn. lia.
Qed.

Lemma parseNameString_inv r s ok r1 : rok r -> parseNameString r = Ok (s, ok, r1) ->
  adv r r1 /\ (ok = true -> r_offset r < r_offset r1).
Proof.
  intros H E. pose proof H as (W & S & O). unfold parseNameString in E.
  destruct (dataPtr r) as [ptr| |]; cbn [bind] in E; try discriminate.
  destruct (skipPrefix_go (stream_fuel r) r) as [[ok1 r2]| |] eqn:ESK; try discriminate. cbn [bind] in E.
  destruct (skipPrefix_go_adv _ _ _ _ H ESK) as (A1 & Hok).
  assert (H2 : rok r2) by (eapply rok_adv; eauto).
  destruct ok1; cbn [negb] in E.
  2:{ inversion E; subst. split; auto. discriminate. }
  specialize (Hok eq_refl).
  destruct (rd1 r2 H2) as [(R & Hge)|(b & R & Lt & Hb & A2)]; rewrite R in E; cbn [bind] in E; [lia|].
  set (r3 := set_offset_raw r2 (r_offset r2 + 1)) in *.
  assert (A03 : adv r r3) by (eapply adv_trans; eauto).
  assert (H3 : rok r3) by (eapply rok_adv; eauto).
  assert (O3 : r_offset r3 = r_offset r2 + 1) by reflexivity.
  assert (L02 : r_offset r <= r_offset r2) by (destruct A1 as (_ & L & _); exact L).
  assert (P3 : r_pkgEnd r3 <= r_len r3) by (destruct H3 as ((_ & P & _) & _); exact P).
  assert (B3 : r_len r3 + 0x10000400 <= two32) by (destruct H3 as (_ & P & _); exact P).
  destruct (b =? 0).
  { inversion E; subst. split; auto. intros _. lia. }
  destruct (b =? 0x2e).
  { destruct (r_pkgEnd r3 <? w32 (r_offset r3 + w32 (aml_amlNameLen * 2))) eqn:EE.
    - inversion E; subst. split; auto. discriminate.
    - apply N.ltb_ge in EE.
      assert (Ew : w32 (r_offset r3 + w32 (aml_amlNameLen * 2)) = r_offset r3 + 8).
      { destruct H3 as (_ & _ & O3'). unfold w32, aml_amlNameLen, two32 in *. lia. }
      rewrite Ew in *. destruct (setOffset_adv r3 (r_offset r3 + 8) H3) as (A4 & E4); [lia|lia|].
      set (r5 := setOffset r3 (r_offset r3 + 8)) in *. clearbody r5.
      inversion E; subst. split; [eapply adv_trans; eauto|]. intros _. lia. }
  destruct (b =? 0x2f).
  { destruct (rd1 r3 H3) as [(R' & Hge')|(sc & R' & Lt' & Hsc & A4)]; rewrite R' in E; cbn [bind] in E.
    { inversion E; subst. split; auto. discriminate. }
    set (r4 := set_offset_raw r3 (r_offset r3 + 1)) in *.
    assert (A04 : adv r r4) by (eapply adv_trans; eauto).
    assert (H4 : rok r4) by (eapply rok_adv; eauto).
    destruct (sc =? 0). { inversion E; subst. split; auto. discriminate. }
    assert (Hx : w8 (sc * aml_amlNameLen) < 256) by (unfold w8, two8; apply N.mod_lt; discriminate).
    remember (w8 (sc * aml_amlNameLen)) as x eqn:Ex. clear Ex.
    assert (O4 : r_offset r4 <= r_len r4) by (destruct H4 as (_ & _ & P); exact P).
    assert (B4 : r_len r4 + 0x10000400 <= two32) by (destruct H4 as (_ & P & _); exact P).
    assert (Ew : w32 (r_offset r4 + x) = r_offset r4 + x) by (unfold w32, two32 in *; apply N.mod_small; lia).
    rewrite Ew in E.
    destruct (r_pkgEnd r4 <? r_offset r4 + x) eqn:EE.
    - inversion E; subst. split; auto. discriminate.
    - apply N.ltb_ge in EE. destruct (setOffset_adv r4 (r_offset r4 + x) H4) as (A5 & E5); [lia|lia|].
      set (r5 := setOffset r4 (r_offset r4 + x)) in *. clearbody r5.
      assert (O4' : r_offset r4 = r_offset r3 + 1) by reflexivity.
      inversion E; subst. split; [eapply adv_trans; eauto|]. intros _. lia. }
  destruct (((b <? 0x41) || (0x5a <? b)) && negb (b =? 0x5f)). { inversion E; subst. split; auto. discriminate. }
  destruct (r_pkgEnd r3 <? w32 (r_offset r3 + w32 (aml_amlNameLen - 1))) eqn:EE.
  - inversion E; subst. split; auto. discriminate.
  - apply N.ltb_ge in EE.
    assert (Ew : w32 (r_offset r3 + w32 (aml_amlNameLen - 1)) = r_offset r3 + 3).
    { destruct H3 as (_ & _ & O3'). unfold w32, aml_amlNameLen, two32 in *. lia. }
    rewrite Ew in *. destruct (setOffset_adv r3 (r_offset r3 + 3) H3) as (A4 & E4); [lia|lia|].
    set (r5 := setOffset r3 (r_offset r3 + 3)) in *. clearbody r5.
    inversion E; subst. split; [eapply adv_trans; eauto|]. intros _. lia.
Qed.

Lemma parseNameString_off r : rok r ->
  exists s ok r1, parseNameString r = Ok (s, ok, r1) /\ adv r r1 /\ (ok = true -> r_offset r < r_offset r1).
Proof.
  intros H. pose proof H as (W & _ & _).
  pose proof (safe2_parseNameString r r W W (sim_refl r)) as SS.
  destruct (parseNameString r) as [[[s ok] r1]| |] eqn:E; try contradiction. clear SS.
  exists s, ok, r1. split; auto. eapply parseNameString_inv; eauto.
Qed.
