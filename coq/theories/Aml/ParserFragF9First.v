(** C11 (fragments F1 .. F9): the first pass on the items of ParserFragF9.v builds [lay1].
    [Spec bs n c ok trees] says what the object-list loop does on a stretch [bs] of the table (followed by anything
    inside the same package); stretches compose ([spec_app]), so every item and every package element is proved for its
    own stretch ([ISpec1], [ESpec1]).  A Name declaration is the Name object followed by a package element, a leaf object
    or a statement its header followed by the constant operands, which are parsed like package elements ([spec_targs]). *)
From Coq Require Import NArith ZArith Arith List Bool Lia.
From Coq Require Import ZifyBool ZifyN ZifyNat.
From FF Require Import Lib.Word Gen.Consts_device_acpi_aml Gen.Consts_aml_tree Aml.Stream Aml.Lex Aml.LexProofs
  Aml.Tree Aml.TreeSpec Aml.TreeProofs Aml.TreeProofsOps Aml.Parser Aml.Grammar Aml.LexRoundtrip
  Aml.ParserTotalTree Aml.ParserTotalBase
  Aml.ParserFragBase Aml.ParserFragFirst Aml.ParserFragF0 Aml.ParserFragF0Shape Aml.ParserFragF0Conn Aml.ParserFragWalk
  Aml.ParserFragRose Aml.ParserFragDev Aml.ParserFragArgs Aml.ParserFragF9.
Import ListNotations.
Local Open Scope N_scope.

(** ---- sizes and nodes of the trees ---- *)
Lemma rsizes_app a b : rsizes (a ++ b) = (rsizes a + rsizes b)%nat.
Proof. induction a as [|x t IH]; [reflexivity|]. cbn [app rsizes fold_right]. fold (rsizes (t ++ b)). fold (rsizes t). rewrite IH. lia. Qed.

Lemma rnodesl_app a b : rnodesl (a ++ b) = rnodesl a ++ rnodesl b.
Proof. unfold rnodesl. apply flat_map_app. Qed.

Lemma lay1_cons h tbl b off x t : lay1 h tbl b off (x :: t) = lay1_item h tbl b off x ++ lay1 h tbl (b + N.of_nat (isz x)) (off + lenN (enc_item x)) t.
Proof. reflexivity. Qed.

Lemma iszs_cons x t : iszs (x :: t) = (isz x + iszs t)%nat. Proof. reflexivity. Qed.
Lemma icnts_cons x t : icnts (x :: t) = (icnt x + icnts t)%nat. Proof. reflexivity. Qed.
Lemma enc_items_cons x t : enc_items (x :: t) = enc_item x ++ enc_items t. Proof. reflexivity. Qed.

Lemma rsizes_cons x t : rsizes (x :: t) = (rsize x + rsizes t)%nat.
Proof. reflexivity. Qed.

Lemma pel_trees_cons h tbl b off x t : pel_trees h tbl b off (x :: t) = pel_tree h tbl b off x :: pel_trees h tbl (b + N.of_nat (pel_sz x)) (off + lenN (enc_pel x)) t.
Proof. reflexivity. Qed.
Lemma pels_sz_cons x t : pels_sz (x :: t) = (pel_sz x + pels_sz t)%nat. Proof. reflexivity. Qed.
Lemma pels_cnt_cons x t : pels_cnt (x :: t) = (pel_cnt x + pels_cnt t)%nat. Proof. reflexivity. Qed.
Lemma enc_pels_cons x t : enc_pels (x :: t) = enc_pel x ++ enc_pels t. Proof. reflexivity. Qed.

Lemma pel_trees_rsizes h tbl : forall l b off, rsizes (pel_trees h tbl b off l) = pels_sz l.
Proof.
  induction l as [|a rest IH|k n es rest IHe IH] using pels_ind; intros b off; [reflexivity| |].
  - rewrite pel_trees_cons, rsizes_cons, IH, pels_sz_cons. cbn [pel_tree]. rewrite rsize_eq. reflexivity.
  - rewrite pel_trees_cons, rsizes_cons, IH, pels_sz_cons, pel_tree_sub, pel_sz_sub. rewrite rsize_eq, rsizes_cons, rsizes_cons, !rsize_eq, IHe.
    cbn [rsizes fold_right]. lia.
Qed.

Lemma pel_tree_rsize h tbl b off e : rsize (pel_tree h tbl b off e) = pel_sz e.
Proof. pose proof (pel_trees_rsizes h tbl [e] b off) as E. cbn [pel_trees rsizes fold_right pels_sz] in E. lia. Qed.

Lemma pel_trees_nodes h tbl : forall l b off x, In x (rnodesl (pel_trees h tbl b off l)) <-> b <= x < b + N.of_nat (pels_sz l).
Proof.
  induction l as [|a rest IH|k n es rest IHe IH] using pels_ind; intros b off x; [cbn; lia| |].
  - rewrite pel_trees_cons, pels_sz_cons. unfold rnodesl. cbn [flat_map]. fold (rnodesl (pel_trees h tbl (b + N.of_nat (pel_sz (PLeaf a))) (off + lenN (enc_pel (PLeaf a))) rest)).
    rewrite in_app_iff, IH. cbn [pel_tree pel_sz]. rewrite rnodes_eq. cbn [rnodesl flat_map In]. lia.
  - rewrite pel_trees_cons, pels_sz_cons. unfold rnodesl. cbn [flat_map]. fold (rnodesl (pel_trees h tbl (b + N.of_nat (pel_sz (PSub k n es))) (off + lenN (enc_pel (PSub k n es))) rest)).
    rewrite in_app_iff, IH, pel_tree_sub, pel_sz_sub. rewrite rnodes_eq. unfold rnodesl at 1. cbn [flat_map]. rewrite !rnodes_eq. cbn [rnodesl flat_map app In]. rewrite !app_nil_r.
    fold (rnodesl (pel_trees h tbl (b + 3) (off + 1 + k + 1) es)). rewrite IHe. lia.
Qed.

Lemma pel_tree_nodes h tbl b off e x : In x (rnodes (pel_tree h tbl b off e)) <-> b <= x < b + N.of_nat (pel_sz e).
Proof.
  pose proof (pel_trees_nodes h tbl [e] b off x) as E. cbn [pel_trees pels_sz fold_right] in E. unfold rnodesl in E. cbn [flat_map] in E. rewrite app_nil_r in E.
  rewrite E. lia.
Qed.

Lemma pkg_tree_rsize h tbl b off k n elems : rsize (pkg_tree h tbl b off k n elems) = (3 + pels_sz elems)%nat.
Proof. unfold pkg_tree. rewrite pel_tree_rsize, pel_sz_sub. reflexivity. Qed.

Lemma pkg_tree_nodes h tbl b off k n elems x : In x (rnodes (pkg_tree h tbl b off k n elems)) <-> b <= x < b + 3 + N.of_nat (pels_sz elems).
Proof. unfold pkg_tree. rewrite pel_tree_nodes, pel_sz_sub. lia. Qed.

Lemma lay1_rsizes h tbl : forall l b off, rsizes (lay1 h tbl b off l) = iszs l.
Proof.
  induction l as [|d rest IH|bk k seg fa body rest IHb IH|lk seg fa ta rest IH|seg k n elems rest IH|sk ta rest IH] using items_ind; intros b off; [reflexivity| | | | |].
  - rewrite lay1_cons, rsizes_app, IH, iszs_cons. reflexivity.
  - rewrite lay1_cons, rsizes_app, IH, iszs_cons, lay1_blk, isz_blk. cbn [rsizes fold_right]. rewrite !rsize_eq.
    rewrite rsizes_app, leaf_row_rsizes, len_hd_pays. cbn [rsizes fold_right]. rewrite rsize_eq, IHb. lia.
  - rewrite lay1_cons, rsizes_app, IH, iszs_cons, isz_leaf. cbn [lay1_item rsizes fold_right]. rewrite rsize_eq.
    fold (rsizes (leaf_row (b + 2 + nlf lk fa) (cst_pays h tbl (ta_off lk off fa) ta))). rewrite !leaf_row_rsizes, len_lhd_pays, len_cst_pays. lia.
  - rewrite lay1_cons, rsizes_app, IH, iszs_cons, isz_pkg. cbn [lay1_item]. rewrite rsizes_cons, rsizes_cons, pkg_tree_rsize, rsize_eq, rsizes_cons, rsize_eq. cbn [rsizes fold_right]. lia.
  - rewrite lay1_cons, rsizes_app, IH, iszs_cons, isz_stmt. cbn [lay1_item]. rewrite rsizes_cons, rsize_eq, leaf_row_rsizes, len_cst_pays. cbn [rsizes fold_right]. lia.
Qed.

Lemma lay1_nodes h tbl : forall l b off x, In x (rnodesl (lay1 h tbl b off l)) -> b <= x < b + N.of_nat (iszs l).
Proof.
  induction l as [|d rest IH|bk k seg fa body rest IHb IH|lk seg fa ta rest IH|seg k n elems rest IH|sk ta rest IH] using items_ind; intros b off x Hx; [contradiction| | | | |].
  5:{ rewrite lay1_cons, rnodesl_app in Hx. rewrite iszs_cons, isz_stmt. apply in_app_or in Hx. destruct Hx as [Hx|Hx].
      - cbn [lay1_item] in Hx. unfold rnodesl in Hx. cbn [flat_map] in Hx. rewrite rnodes_eq in Hx. cbn [rnodesl flat_map app In] in Hx.
        fold (rnodesl (leaf_row (b + 1) (cst_pays h tbl (off + slo sk) ta))) in Hx.
        destruct Hx as [<-|Hx]; [lia|]. apply leaf_row_nodes in Hx. rewrite len_cst_pays in Hx. lia.
      - apply IH in Hx. rewrite isz_stmt in Hx. lia. }
  - rewrite lay1_cons, rnodesl_app in Hx. rewrite iszs_cons. apply in_app_or in Hx. destruct Hx as [Hx|Hx].
    + cbn [lay1_item rnodesl flat_map rnodes app In] in Hx. cbn [isz]. lia.
    + apply IH in Hx. cbn [isz] in *. lia.
  - rewrite lay1_cons, rnodesl_app in Hx. rewrite iszs_cons, isz_blk. apply in_app_or in Hx. destruct Hx as [Hx|Hx].
    + rewrite lay1_blk in Hx. unfold rnodesl in Hx. cbn [flat_map] in Hx. rewrite app_nil_r, rnodes_eq in Hx.
      destruct Hx as [<-|Hx]; [lia|]. rewrite rnodesl_app in Hx. apply in_app_or in Hx. destruct Hx as [Hx|Hx].
      * apply leaf_row_nodes in Hx. rewrite len_hd_pays in Hx. lia.
      * unfold rnodesl in Hx. cbn [flat_map] in Hx. rewrite app_nil_r, rnodes_eq in Hx. unfold nfx in Hx.
        destruct Hx as [<-|Hx]; [lia|]. apply IHb in Hx. lia.
    + apply IH in Hx. rewrite isz_blk in Hx. lia.
  - rewrite lay1_cons, rnodesl_app in Hx. rewrite iszs_cons, isz_leaf. apply in_app_or in Hx. destruct Hx as [Hx|Hx].
    + cbn [lay1_item] in Hx. unfold rnodesl in Hx. cbn [flat_map] in Hx. rewrite rnodes_eq in Hx. cbn [app In] in Hx.
      fold (rnodesl (leaf_row (b + 2 + nlf lk fa) (cst_pays h tbl (ta_off lk off fa) ta))) in Hx. unfold nlf in Hx.
      destruct Hx as [<-|Hx]; [lia|]. apply in_app_or in Hx. destruct Hx as [Hx|Hx]; apply leaf_row_nodes in Hx; rewrite ?len_lhd_pays, ?len_cst_pays in Hx; lia.
    + apply IH in Hx. rewrite isz_leaf in Hx. lia.
  - rewrite lay1_cons, rnodesl_app in Hx. rewrite iszs_cons, isz_pkg. apply in_app_or in Hx. destruct Hx as [Hx|Hx].
    + cbn [lay1_item] in Hx. unfold rnodesl in Hx. cbn [flat_map] in Hx. rewrite app_nil_r in Hx. apply in_app_or in Hx.
      destruct Hx as [Hx|Hx]; [rewrite rnodes_eq in Hx; cbn [rnodesl flat_map rnodes app In] in Hx; lia|apply pkg_tree_nodes in Hx; lia].
    + apply IH in Hx. rewrite isz_pkg in Hx. lia.
Qed.

(** ---- what the first pass does to the forest and the payloads ---- *)
Record Post1 (g : ghost) (pl : list pay) (g' : ghost) (pl' : list pay) (sc : N) (trees : list rose) : Prop := mkPost1 {
  p1_free : g_free g' = [];
  p1_len : length pl' = (length pl + rsizes trees)%nat;
  p1_sc : kids g' sc = kids g sc ++ map ridx trees;
  p1_desc : Forall (Desc g' pl') trees;
  p1_old_k : forall x, x < N.of_nat (length pl) -> x <> sc -> kids g' x = kids g x;
  p1_old_p : forall x, x < N.of_nat (length pl) -> pget pl' x = pget pl x
}.

Lemma Post1_nil g pl sc : g_free g = [] -> Post1 g pl g pl sc [].
Proof. intros Hf. constructor; [exact Hf|cbn [rsizes fold_right]; lia|cbn [map]; rewrite app_nil_r; reflexivity|constructor|auto|auto]. Qed.

Lemma Post1_app g pl g1 pl1 g2 pl2 sc tr1 tr2 :
  sc < N.of_nat (length pl) ->
  (forall x, In x (rnodesl tr1) -> N.of_nat (length pl) <= x < N.of_nat (length pl1)) ->
  Post1 g pl g1 pl1 sc tr1 -> Post1 g1 pl1 g2 pl2 sc tr2 -> Post1 g pl g2 pl2 sc (tr1 ++ tr2).
Proof.
  intros Hsc Hn [A1 A2 A3 A4 A5 A6] [B1 B2 B3 B4 B5 B6]. constructor.
  - exact B1.
  - rewrite B2, A2, rsizes_app. lia.
  - rewrite B3, A3, map_app, app_assoc. reflexivity.
  - apply Forall_app. split; [|exact B4]. apply (Desc_frame_l g1 pl1); [exact A4|].
    intros x Hx. destruct (Hn x Hx) as (Hlo & Hhi). split; [apply B5; lia|apply B6; lia].
  - intros x Hx Hne. rewrite B5 by lia. apply A5; assumption.
  - intros x Hx. rewrite B6 by lia. apply A6; assumption.
Qed.

(** ---- the two loops of parseObjectList as one computation ---- *)
Definition list_end (fo : nat) : M pres :=
  mlet n1 <~ get (fun s => length (p_pkgEndStack s)) ;;
  mlet n2 <~ get (fun s => length (p_scopeStack s)) ;;
  (if Nat.eqb n1 n2 then scopeExit else ret tt) ;;;
  popPkgEnd ;;;
  parseObjectList fo.

Definition list_cont (fo fi : nat) : M pres :=
  mlet ok <~ objectList_inner fi ;; if negb ok then ret RFailed else list_end fo.

Lemma wp_list_cont_S fo fi s (Q : pres -> pstate -> Prop) :
  wp False (mlet e <~ eofM ;; if e then list_end fo else
            mlet res <~ parseNextObject fi ;; if pres_eqb res ROk then list_cont fo fi else ret RFailed) s Q ->
  wp False (list_cont fo (S fi)) s Q.
Proof.
  unfold wp, list_cont. rewrite objectList_inner_S. unfold bindM, eofM, rq, get.
  destruct (eof (p_r s)); [cbn [negb]; auto|].
  destruct (parseNextObject fi s) as [[res s1]| |]; auto.
  destruct (pres_eqb res ROk); auto.
Qed.

Lemma wp_parseObjectList_cont f s (Q : pres -> pstate -> Prop) :
  p_scopeStack s <> [] -> wp False (list_cont f f) s Q -> wp False (parseObjectList (S f)) s Q.
Proof.
  intros Hne K. unfold wp in *. rewrite parseObjectList_S. unfold bindM at 1. unfold get at 1.
  destruct (p_scopeStack s) as [|x l]; [congruence|]. exact K.
Qed.

(** the end of a block: both stacks are popped and the outer loop goes on *)
Lemma wp_list_end fo data len off e1 e t sb sc ss es se h tbls (Q : pres -> pstate -> Prop) :
  length ss = length es -> e <= len ->
  wp False (list_cont fo fo) (mkP (mkReader data len off e) t (sc :: ss) (e :: es) se 0 0 0 false h tbls) Q ->
  wp False (list_end (S fo)) (mkP (mkReader data len off e1) t (sb :: sc :: ss) (e1 :: e :: es) se 0 0 0 false h tbls) Q.
Proof.
  intros Hlen He K. unfold list_end.
  apply wp_bind, wp_get. apply wp_bind, wp_get. scbn. cbn [length]. rewrite Hlen, Nat.eqb_refl.
  apply wp_bind. unfold wp at 1, scopeExit. scbn.
  apply wp_bind. unfold wp at 1, popPkgEnd. scbn. cbv zeta iota beta. unfold setPkgEnd. cbn [r_len fst].
  assert (E : len <? e = false) by (apply N.ltb_ge; exact He). rewrite E. cbn [fst].
  apply wp_parseObjectList_cont; [scbn; discriminate|]. exact K.
Qed.

(** reader facts for a token in the middle of the table *)
Lemma mk_at data len off e pre tok post :
  data = pre ++ tok ++ post -> off = lenN pre -> lenN pre + lenN tok <= e -> e <= len -> len = lenN data -> len < two32 ->
  Forall (fun b => b < 256) data ->
  at_token (mkReader data len off e) pre tok post.
Proof.
  intros Hd Ho He Hl Hn Hs Hb. constructor; cbn [r_data r_offset r_pkgEnd]; auto.
  unfold reader_wf. cbn [r_len r_data r_pkgEnd]. repeat split; auto.
Qed.

Lemma forallb_item_cons x t : forallb item_okb (x :: t) = true -> item_okb x = true /\ forallb item_okb t = true.
Proof. cbn [forallb]. intros H. apply andb_prop in H. exact H. Qed.

(** ---- the trees of one item ---- *)
Lemma nth_error_S {A} (x : A) l n : nth_error (x :: l) (S n) = nth_error l n.
Proof. reflexivity. Qed.

Lemma map_fst_combine {A B} (l1 : list A) (l2 : list B) : length l1 = length l2 -> map fst (combine l1 l2) = l1.
Proof. revert l2. induction l1 as [|x t IH]; intros [|y r] Hl; cbn in *; try reflexivity; try discriminate. rewrite IH by lia. reflexivity. Qed.

Lemma post1_blk g pl sc g2 pl2 h tbl bk k seg fa body off :
  sc < N.of_nat (length pl) -> length (g_kids g) = length pl ->
  Post1 (g_args (g_head g sc) (N.of_nat (length pl)) (2 + length (bfx bk fa)))
        (pl ++ blk_pay h bk off name_zero :: hd_pays h tbl bk off k fa ++ [sb_pay h (sb_off bk off k fa)]) g2 pl2
        (N.of_nat (length pl) + 2 + nfx bk fa) (lay1 h tbl (N.of_nat (length pl) + 3 + nfx bk fa) (sb_off bk off k fa) body) ->
  Post1 g pl g2 pl2 sc (lay1_item h tbl (N.of_nat (length pl)) off (IBlk bk k seg fa body)).
Proof.
  intros Hsc Hlg [A1 A2 A3 A4 A5 A6]. set (b := N.of_nat (length pl)) in *.
  set (nf := length (bfx bk fa)) in *. assert (Hm : nfx bk fa = N.of_nat nf) by reflexivity. rewrite Hm in *.
  set (news := blk_pay h bk off name_zero :: hd_pays h tbl bk off k fa ++ [sb_pay h (sb_off bk off k fa)]) in *.
  set (pl1 := pl ++ news) in *.
  assert (Hlh : length (hd_pays h tbl bk off k fa) = S nf) by apply len_hd_pays.
  assert (Hln : length news = (3 + nf)%nat) by (unfold news; cbn [length]; rewrite app_length, Hlh; cbn [length]; lia).
  assert (Hl1 : N.of_nat (length pl1) = b + 3 + N.of_nat nf) by (unfold pl1, b; rewrite app_length, Hln; lia).
  assert (Hoob : forall i, b <= i -> kids g i = []) by (intros i Hi; apply kids_oob; rewrite Hlg; exact Hi).
  assert (HK : forall i, kids (g_args (g_head g sc) b (2 + nf)) i =
             if i =? b then seqN (b + 1) (2 + nf) else if i =? sc then kids g sc ++ [b] else kids g i).
  { intros i. rewrite kids_g_args by (rewrite len_g_head, Hlg; unfold b; lia). rewrite len_g_head, !kids_g_head by (rewrite Hlg; exact Hsc). rewrite Hlg.
    destruct (N.eqb_spec i b) as [->|Hib].
    - destruct (N.eqb_spec b sc); [lia|]. rewrite (Hoob b) by lia. cbn [app]. f_equal. unfold b. lia.
    - reflexivity. }
  assert (Hp : forall c, c < 3 + N.of_nat nf -> pget pl2 (b + c) = pget news c).
  { intros c Hc. rewrite A6 by lia. unfold pl1, b. apply pget_app_new. }
  rewrite lay1_blk. fold b. rewrite Hm. constructor.
  - exact A1.
  - rewrite A2. unfold pl1. rewrite app_length, Hln. cbn [rsizes fold_right]. rewrite !rsize_eq, rsizes_app, leaf_row_rsizes, Hlh.
    cbn [rsizes fold_right]. rewrite rsize_eq. lia.
  - rewrite A5 by lia. rewrite HK. destruct (N.eqb_spec sc b); [lia|]. rewrite N.eqb_refl. reflexivity.
  - constructor; [|constructor]. constructor.
    + rewrite <- (N.add_0_r b). rewrite (Hp 0) by lia. reflexivity.
    + rewrite A5 by lia. rewrite HK, N.eqb_refl. rewrite map_app, leaf_row_idx, Hlh. cbn [map ridx].
      change (2 + nf)%nat with (S (S nf)). rewrite (seqN_snoc (b + 1) (S nf)). f_equal. f_equal. lia.
    + apply Forall_app. split.
      * apply leaf_row_desc. intros i p Hi.
        assert (Hilt : (i < S nf)%nat) by (rewrite <- Hlh; apply nth_error_Some; congruence).
        split.
        -- replace (b + 1 + N.of_nat i) with (b + N.of_nat (S i)) by lia. rewrite Hp by lia. unfold pget. rewrite Nat2N.id.
           unfold news. cbn [nth_error]. rewrite nth_error_app1 by (rewrite Hlh; lia). exact Hi.
        -- rewrite A5 by lia. rewrite HK. destruct (N.eqb_spec (b + 1 + N.of_nat i) b); [lia|]. destruct (N.eqb_spec (b + 1 + N.of_nat i) sc); [lia|]. apply Hoob. lia.
      * constructor; [|constructor]. constructor; [| |exact A4].
        -- replace (b + 2 + N.of_nat nf) with (b + N.of_nat (S (S nf))) by lia. rewrite Hp by lia. unfold pget. rewrite Nat2N.id.
           unfold news. rewrite nth_error_S, nth_error_app2 by (rewrite Hlh; lia). rewrite Hlh, Nat.sub_diag. reflexivity.
        -- rewrite A3. rewrite HK. destruct (N.eqb_spec (b + 2 + N.of_nat nf) b); [lia|]. destruct (N.eqb_spec (b + 2 + N.of_nat nf) sc); [lia|].
           rewrite (Hoob (b + 2 + N.of_nat nf)) by lia. reflexivity.
  - intros x Hx Hne. rewrite A5 by lia. rewrite HK. destruct (N.eqb_spec x b); [lia|]. apply N.eqb_neq in Hne. rewrite Hne. reflexivity.
  - intros x Hx. rewrite A6 by lia. unfold pl1. apply pget_app_old. exact Hx.
Qed.

Lemma post1_leafhd g pl sc h tbl lk fa off :
  sc < N.of_nat (length pl) -> length (g_kids g) = length pl ->
  Post1 g pl (g_args (g_head g sc) (N.of_nat (length pl)) (1 + length (lfx lk fa)))
        (pl ++ lf_pay h lk off name_zero :: lhd_pays h tbl lk off fa) sc
        [RN (N.of_nat (length pl)) (lf_pay h lk off name_zero) (leaf_row (N.of_nat (length pl) + 1) (lhd_pays h tbl lk off fa))].
Proof.
  intros Hsc Hlg. set (b := N.of_nat (length pl)) in *. set (nf := length (lfx lk fa)) in *.
  set (hdp := lhd_pays h tbl lk off fa). assert (Hlh : length hdp = S nf) by apply len_lhd_pays.
  set (news := lf_pay h lk off name_zero :: hdp).
  assert (Hoob : forall i, b <= i -> kids g i = []) by (intros i Hi; apply kids_oob; rewrite Hlg; exact Hi).
  assert (HK : forall i, kids (g_args (g_head g sc) b (1 + nf)) i = if i =? b then seqN (b + 1) (1 + nf) else if i =? sc then kids g sc ++ [b] else kids g i).
  { intros i. rewrite kids_g_args by (rewrite len_g_head, Hlg; unfold b; lia). rewrite len_g_head, !kids_g_head by (rewrite Hlg; exact Hsc). rewrite Hlg.
    destruct (N.eqb_spec i b) as [->|Hib]; [|reflexivity].
    destruct (N.eqb_spec b sc); [lia|]. rewrite (Hoob b) by lia. cbn [app]. f_equal. unfold b. lia. }
  assert (Hp : forall c, pget (pl ++ news) (b + c) = pget news c) by (intros c; unfold b; apply pget_app_new).
  constructor.
  - apply free_g_args. reflexivity.
  - rewrite app_length. unfold news. cbn [length rsizes fold_right]. rewrite rsize_eq, leaf_row_rsizes. lia.
  - rewrite HK. destruct (N.eqb_spec sc b); [lia|]. rewrite N.eqb_refl. reflexivity.
  - constructor; [|constructor]. constructor.
    + rewrite <- (N.add_0_r b). rewrite Hp. reflexivity.
    + rewrite HK, N.eqb_refl, leaf_row_idx, Hlh. reflexivity.
    + apply leaf_row_desc. intros i p Hi. assert (Hilt : (i < S nf)%nat) by (rewrite <- Hlh; apply nth_error_Some; congruence).
      split.
      * replace (b + 1 + N.of_nat i) with (b + N.of_nat (S i)) by lia. rewrite Hp. unfold pget. rewrite Nat2N.id. exact Hi.
      * rewrite HK. destruct (N.eqb_spec (b + 1 + N.of_nat i) b); [lia|]. destruct (N.eqb_spec (b + 1 + N.of_nat i) sc); [lia|]. apply Hoob. lia.
  - intros x Hx Hne. rewrite HK. destruct (N.eqb_spec x b); [lia|]. apply N.eqb_neq in Hne. rewrite Hne. reflexivity.
  - intros x Hx. apply pget_app_old. exact Hx.
Qed.

(** a single new childless object of the scope *)
Lemma post1_single g pl sc p : sc < N.of_nat (length pl) -> length (g_kids g) = length pl ->
  Post1 g pl (g_head g sc) (pl ++ [p]) sc [RN (N.of_nat (length pl)) p []].
Proof.
  intros Hsc Hlg. set (b := N.of_nat (length pl)).
  assert (Hoob : forall i, b <= i -> kids g i = []) by (intros i Hi; apply kids_oob; rewrite Hlg; exact Hi).
  assert (HK : forall i, kids (g_head g sc) i = if i =? sc then kids g sc ++ [b] else kids g i).
  { intros i. rewrite kids_g_head by (rewrite Hlg; exact Hsc). rewrite Hlg. reflexivity. }
  constructor.
  - reflexivity.
  - rewrite app_length. cbn [length rsizes fold_right]. rewrite rsize_eq. cbn [rsizes fold_right]. lia.
  - rewrite HK, N.eqb_refl. reflexivity.
  - constructor; [|constructor]. constructor; [apply pget_app_last| |constructor].
    rewrite HK. destruct (N.eqb_spec b sc); [lia|]. apply Hoob. lia.
  - intros x Hx Hne. rewrite HK. apply N.eqb_neq in Hne. rewrite Hne. reflexivity.
  - intros x Hx. apply pget_app_old. exact Hx.
Qed.

(** a Name object with its name path; the value follows as an object of its own *)
Lemma post1_nameonly g pl sc h tbl off : sc < N.of_nat (length pl) -> length (g_kids g) = length pl ->
  Post1 g pl (g_name g sc) (pl ++ [nam_pay h off name_zero; pth_pay h tbl (off + 1)]) sc
        [RN (N.of_nat (length pl)) (nam_pay h off name_zero) [RN (N.of_nat (length pl) + 1) (pth_pay h tbl (off + 1)) []]].
Proof.
  intros Hsc Hlg. set (b := N.of_nat (length pl)).
  assert (Hoob : forall i, b <= i -> kids g i = []) by (intros i Hi; apply kids_oob; rewrite Hlg; exact Hi).
  assert (HK : forall i, kids (g_name g sc) i = if i =? b then [b + 1] else if i =? sc then kids g sc ++ [b] else kids g i).
  { intros i. rewrite kids_g_name by (rewrite Hlg; exact Hsc). rewrite Hlg. reflexivity. }
  set (news := [nam_pay h off name_zero; pth_pay h tbl (off + 1)]).
  assert (Hp : forall c, c < 2 -> pget (pl ++ news) (b + c) = pget news c) by (intros c Hc; unfold b; apply pget_app_new).
  constructor.
  - reflexivity.
  - rewrite app_length. unfold news. cbn [length rsizes fold_right]. rewrite !rsize_eq. cbn [rsizes fold_right]. rewrite rsize_eq. cbn [rsizes fold_right]. lia.
  - rewrite HK. destruct (N.eqb_spec sc b); [lia|]. rewrite N.eqb_refl. reflexivity.
  - constructor; [|constructor]. constructor.
    + rewrite <- (N.add_0_r b). rewrite (Hp 0) by lia. reflexivity.
    + rewrite HK, N.eqb_refl. reflexivity.
    + constructor; [|constructor]. constructor; [rewrite (Hp 1) by lia; reflexivity| |constructor].
      rewrite HK. destruct (N.eqb_spec (b + 1) b); [lia|]. destruct (N.eqb_spec (b + 1) sc); [lia|]. apply Hoob. lia.
  - intros x Hx Hne. rewrite HK. destruct (N.eqb_spec x b); [lia|]. apply N.eqb_neq in Hne. rewrite Hne. reflexivity.
  - intros x Hx. apply pget_app_old. exact Hx.
Qed.

(** a package: the element count and a ScopeBlock with the elements below it *)
Lemma post1_sub g pl sc g2 pl2 h tbl k n es off :
  sc < N.of_nat (length pl) -> length (g_kids g) = length pl ->
  Post1 (g_args (g_head g sc) (N.of_nat (length pl)) 2)
        (pl ++ [pkg_pay h off; num_pay h W1 (off + 1 + k) n; sb_pay h (off + 1 + k + 1)]) g2 pl2
        (N.of_nat (length pl) + 2) (pel_trees h tbl (N.of_nat (length pl) + 3) (off + 1 + k + 1) es) ->
  Post1 g pl g2 pl2 sc [pel_tree h tbl (N.of_nat (length pl)) off (PSub k n es)].
Proof.
  intros Hsc Hlg [A1 A2 A3 A4 A5 A6]. set (b := N.of_nat (length pl)) in *.
  set (news := [pkg_pay h off; num_pay h W1 (off + 1 + k) n; sb_pay h (off + 1 + k + 1)]) in *.
  set (pl1 := pl ++ news) in *.
  assert (Hl1 : N.of_nat (length pl1) = b + 3) by (unfold pl1, b, news; rewrite app_length; cbn [length]; lia).
  assert (Hoob : forall i, b <= i -> kids g i = []) by (intros i Hi; apply kids_oob; rewrite Hlg; exact Hi).
  assert (HK : forall i, kids (g_args (g_head g sc) b 2) i =
             if i =? b then seqN (b + 1) 2 else if i =? sc then kids g sc ++ [b] else kids g i).
  { intros i. rewrite kids_g_args by (rewrite len_g_head, Hlg; unfold b; lia). rewrite len_g_head, !kids_g_head by (rewrite Hlg; exact Hsc). rewrite Hlg.
    destruct (N.eqb_spec i b) as [->|Hib].
    - destruct (N.eqb_spec b sc); [lia|]. rewrite (Hoob b) by lia. cbn [app]. f_equal. unfold b. lia.
    - reflexivity. }
  assert (Hp : forall c, c < 3 -> pget pl2 (b + c) = pget news c).
  { intros c Hc. rewrite A6 by lia. unfold pl1, b. apply pget_app_new. }
  rewrite pel_tree_sub. constructor.
  - exact A1.
  - rewrite A2. unfold pl1. rewrite app_length. unfold news. cbn [length rsizes fold_right]. rewrite !rsize_eq. cbn [rsizes fold_right]. rewrite !rsize_eq. cbn [rsizes fold_right].
    fold (rsizes (pel_trees h tbl (b + 3) (off + 1 + k + 1) es)). lia.
  - rewrite A5 by lia. rewrite HK. destruct (N.eqb_spec sc b); [lia|]. rewrite N.eqb_refl. reflexivity.
  - constructor; [|constructor]. constructor.
    + rewrite <- (N.add_0_r b). rewrite (Hp 0) by lia. reflexivity.
    + rewrite A5 by lia. rewrite HK, N.eqb_refl. cbn [map ridx seqN]. f_equal. f_equal. lia.
    + constructor; [|constructor; [|constructor]].
      * constructor; [rewrite (Hp 1) by lia; reflexivity| |constructor].
        rewrite A5 by lia. rewrite HK. destruct (N.eqb_spec (b + 1) b); [lia|]. destruct (N.eqb_spec (b + 1) sc); [lia|]. apply Hoob. lia.
      * constructor; [rewrite (Hp 2) by lia; reflexivity| |exact A4].
        rewrite A3. rewrite HK. destruct (N.eqb_spec (b + 2) b); [lia|]. destruct (N.eqb_spec (b + 2) sc); [lia|]. rewrite (Hoob (b + 2)) by lia. reflexivity.
  - intros x Hx Hne. rewrite A5 by lia. rewrite HK. destruct (N.eqb_spec x b); [lia|]. apply N.eqb_neq in Hne. rewrite Hne. reflexivity.
  - intros x Hx. rewrite A6 by lia. unfold pl1. apply pget_app_old. exact Hx.
Qed.

Lemma lenN_enc_pkglen k v : pkglen_admissible k v -> lenN (enc_pkglen k v) = k.
Proof. intros [(-> & _)|[(-> & _)|[(-> & _)|(-> & _)]]]; reflexivity. Qed.

Lemma enc_op_nonempty op : exists x l, enc_op op = x :: l.
Proof. unfold enc_op. destruct (op <=? 255); eauto. Qed.

Lemma sk_facts sk : valid_opcode (sk_op sk) /\ sk_op sk <> aml_pOpNoop /\ sk_op sk <> opFreed /\ is_prefix_op (sk_op sk) = false /\
  opcodeTableIndex (sk_op sk) true = Some (sk_info sk) /\ opInfo (sk_info sk) = Some (sk_op sk, 16, sk_af sk).
Proof.
  destruct sk; (split; [split; [cbv; discriminate|eexists; split; [reflexivity|discriminate]]|]);
    (split; [discriminate|]); (split; [discriminate|]); repeat split; reflexivity.
Qed.

Lemma next_stmt f sk s g pl pre rest post sc scs a :
  Rep (p_tree s) g pl -> g_free g = [] -> N.of_nat (length pl) < InvalidIndex ->
  at_token (p_r s) pre (enc_op (sk_op sk) ++ rest) post ->
  p_scopeStack s = sc :: scs -> pget pl sc = Some a -> y_op a <> opFreed -> p_allBlocks s = false ->
  wp False (parseNextObject (S (S (S (S f))))) s (fun res s' => res = ROk /\ exists t',
    s' = with_tree (with_r s (set_offset_raw (p_r s) (lenN pre + lenN (enc_op (sk_op sk))))) t' /\
    Rep t' (g_head g sc) (pl ++ [mkPay (sk_op sk) (sk_info sk) (p_handle s) name_zero (lenN pre) 0 None])).
Proof.
  intros H Hfree Hroom Hat Est Hsc Hlsc Hab.
  destruct (sk_facts sk) as (Hvalid & Hnoop & Hnf & Hnp & Hidx & Hinfo).
  eapply (next_head _ (sk_op sk) (sk_info sk) s g pl pre rest post sc scs a);
    [exact H|exact Hfree|exact Hroom|exact Hat|exact Hvalid|exact Hnoop|exact Hnf|exact Hidx|exact Est|exact Hsc|exact Hlsc|].
  intros t1 H1.
  set (s1 := with_tree (with_r s (set_offset_raw (p_r s) (lenN pre + lenN (enc_op (sk_op sk))))) t1).
  set (a1 := mkPay (sk_op sk) (sk_info sk) (p_handle s) name_zero (lenN pre) 0 None) in *.
  assert (Hn : pget (pl ++ [a1]) (N.of_nat (length pl)) = Some a1) by apply pget_app_last.
  eapply (objargs_other _ _ a1 (sk_op sk, 16, sk_af sk) s1 _ _); [exact H1|exact Hn|exact Hnf|exact Hnp|exact Hinfo|].
  assert (Hab1 : p_allBlocks s1 = false) by exact Hab.
  destruct sk; cbn [sk_af].
  1-9: (cbn [parseArgs];
        match goal with |- context [argCount ?x =? 0] => let c := eval vm_compute in (argCount x) in change (argCount x) with c end;
        match goal with |- context [argType ?x 0] => change (argType x 0) with aml_pArgTypeTermArg end;
        cbv iota; match goal with |- context [?c =? 0] => change (c =? 0) with false end;
        match goal with |- context [?c <=? 0] => change (c <=? 0) with false end; cbv iota;
        apply wp_bind; eapply wp_of_run; [apply parseArg_TermArg; exact Hab1|]; cbv beta iota;
        apply wp_bind; apply wp_ret; change (pres_eqb RShort ROk) with false; cbv iota; apply wp_ret;
        split; [reflexivity|]; exists t1; split; [reflexivity|exact H1]).
  all: (cbn [parseArgs]; change (argCount 0) with 0; change (0 =? 0) with true; cbv iota; apply wp_ret;
        split; [reflexivity|]; exists t1; split; [reflexivity|exact H1]).
Qed.

Section ItemsSpec.
Variable h : N.
Variable data : list N.
Variable len se : N.
Variable tbls : list (list N).
Let tbl := N.of_nat (length tbls) - 1.
Hypothesis Hlen : len = lenN data.
Hypothesis Hsmall : len < two32.
Hypothesis Hbytes : Forall (fun b => b < 256) data.

Definition st1 (off e : N) (t : T) (ss ps : list N) : pstate := mkP (mkReader data len off e) t ss ps se 0 0 0 false h tbls.

(** What the object-list loop does on a stretch [bs] of the table that holds [n] objects (fuel [c]) and is followed by
    [tl] inside the same package: it appends the forest [trees] to the scope and arrives behind [bs].
    [R] is the fuel that remains for what follows; a single turn needs at most 6 units beyond the count [c] of its
    object (headers of blocks and packages: [ispec_blk], [espec_sub]), 8 is a round bound for that. *)
Definition Spec (bs : list N) (n c : nat) (ok : bool) (trees : N -> N -> list rose) : Prop :=
  forall fo fi off e t sc ss es g pl pre tl post a R (Q : pres -> pstate -> Prop),
  Rep t g pl -> g_free g = [] -> N.of_nat (length pl) + N.of_nat n < InvalidIndex ->
  data = pre ++ (bs ++ tl) ++ post -> off = lenN pre -> lenN pre + lenN (bs ++ tl) <= e -> e <= len ->
  ok = true -> length ss = length es ->
  pget pl sc = Some a -> y_op a <> opFreed ->
  (8 <= R)%nat -> (c + R <= fi)%nat -> (c + R + 1 <= fo)%nat ->
  (forall t' g' pl' fo' fi', Rep t' g' pl' -> Post1 g pl g' pl' sc (trees (N.of_nat (length pl)) off) ->
      (R <= fi')%nat -> (R + 1 <= fo')%nat ->
      wp False (list_cont fo' fi') (st1 (off + lenN bs) e t' (sc :: ss) (e :: es)) Q) ->
  wp False (list_cont fo fi) (st1 off e t (sc :: ss) (e :: es)) Q.

Lemma spec_nil : Spec [] 0 0 true (fun _ _ => []).
Proof.
  intros fo fi off e t sc ss es g pl pre tl post a R Q H Hfree Hroom Hd Ho He Hel Hok Hbal Hsc Hlsc HR Hfi Hfo K.
  specialize (K t g pl fo fi H (Post1_nil g pl sc Hfree)). change (lenN (@nil N)) with 0 in K.
  rewrite N.add_0_r in K. apply K; lia.
Qed.

Lemma spec_app bs1 n1 c1 ok1 T1 bs2 n2 c2 ok2 T2 :
  (forall b off, rsizes (T1 b off) = n1) -> (forall b off x, In x (rnodesl (T1 b off)) -> b <= x < b + N.of_nat n1) ->
  Spec bs1 n1 c1 ok1 T1 -> Spec bs2 n2 c2 ok2 T2 ->
  Spec (bs1 ++ bs2) (n1 + n2) (c1 + c2) (ok1 && ok2) (fun b off => T1 b off ++ T2 (b + N.of_nat n1) (off + lenN bs1)).
Proof.
  intros Hsz Hnd S1 S2 fo fi off e t sc ss es g pl pre tl post a R Q H Hfree Hroom Hd Ho He Hel Hok Hbal Hsc Hlsc HR Hfi Hfo K.
  apply andb_prop in Hok. destruct Hok as [Hok1 Hok2]. rewrite <- (app_assoc bs1 bs2 tl) in Hd, He.
  assert (Hsclt : sc < N.of_nat (length pl)) by (eapply pget_lt; eauto).
  apply (S1 fo fi off e t sc ss es g pl pre (bs2 ++ tl) post a (c2 + R)%nat Q H Hfree);
    [lia|exact Hd|exact Ho|exact He|exact Hel|exact Hok1|exact Hbal|exact Hsc|exact Hlsc|lia|lia|lia|].
  intros t1 g1 pl1 fo1 fi1 H1 P1 Hfi1 Hfo1.
  assert (Hl1 : length pl1 = (length pl + n1)%nat) by (rewrite (p1_len _ _ _ _ _ _ P1), Hsz; reflexivity).
  rewrite (lenN_app bs1) in He.
  apply (S2 fo1 fi1 (off + lenN bs1) e t1 sc ss es g1 pl1 (pre ++ bs1) tl post a R Q H1 (p1_free _ _ _ _ _ _ P1));
    [rewrite Hl1; lia|rewrite Hd, <- !app_assoc; reflexivity|rewrite lenN_app, Ho; reflexivity|rewrite lenN_app; lia|exact Hel|exact Hok2|exact Hbal
    |rewrite (p1_old_p _ _ _ _ _ _ P1) by exact Hsclt; exact Hsc|exact Hlsc|exact HR|lia|lia|].
  intros t2 g2 pl2 fo2 fi2 H2 P2 Hfi2 Hfo2.
  specialize (K t2 g2 pl2 fo2 fi2 H2). rewrite lenN_app, N.add_assoc in K. apply K; [|exact Hfi2|exact Hfo2].
  eapply Post1_app; [exact Hsclt| |exact P1|].
  - intros x Hx. apply Hnd in Hx. rewrite Hl1. lia.
  - replace (N.of_nat (length pl) + N.of_nat n1) with (N.of_nat (length pl1)) by lia. exact P2.
Qed.

Lemma spec_weaken bs n c c' ok ok' T T' : (c <= c')%nat -> (ok' = true -> ok = true) -> (forall b off, T b off = T' b off) ->
  Spec bs n c ok T -> Spec bs n c' ok' T'.
Proof.
  intros Hc Hk HT S fo fi off e t sc ss es g pl pre tl post a R Q H Hfree Hroom Hd Ho He Hel Hok Hbal Hsc Hlsc HR Hfi Hfo K.
  apply (S fo fi off e t sc ss es g pl pre tl post a R Q); auto; try lia.
  intros t' g' pl' fo' fi' H' P'. rewrite HT in P'. exact (K t' g' pl' fo' fi' H' P').
Qed.

Definition ISpec (its : list item) : Prop :=
  Spec (enc_items its) (iszs its) (icnts its) (forallb item_okb its) (fun b off => lay1 h tbl b off its).
Definition ISpec1 (x : item) : Prop :=
  Spec (enc_item x) (isz x) (icnt x) (item_okb x) (fun b off => lay1_item h tbl b off x).

Lemma ispec_cons x rest : ISpec1 x -> ISpec rest -> ISpec (x :: rest).
Proof.
  apply spec_app.
  - intros b off. pose proof (lay1_rsizes h tbl [x] b off) as E. cbn [lay1 iszs fold_right] in E. rewrite app_nil_r in E. lia.
  - intros b off y Hy. pose proof (lay1_nodes h tbl [x] b off y) as E. cbn [lay1 iszs fold_right] in E. rewrite app_nil_r in E. specialize (E Hy). lia.
Qed.

Lemma spec_nameonly seg : Spec (OP_NAME :: seg_bytes seg) 2 1 (lead_okb (seg_lead seg))
  (fun b off => [RN b (nam_pay h off name_zero) [RN (b + 1) (pth_pay h tbl (off + 1)) []]]).
Proof.
  intros fo fi off e t sc ss es g pl pre tl post a R Q H Hfree Hroom Hd Ho He Hel Hok Hbal Hsc Hlsc HR Hfi Hfo K. subst off.
  pose proof (rep_len_g _ _ _ H) as Hlg.
  assert (Hsclt : sc < N.of_nat (length pl)) by (eapply pget_lt; eauto).
  assert (Ef : exists f', fi = S (S (S (S (S (S f')))))) by (exists (fi - 6)%nat; lia). destruct Ef as (f' & ->).
  set (s0 := st1 (lenN pre) e t (sc :: ss) (e :: es)).
  assert (Hat0 : at_token (p_r s0) pre (OP_NAME :: seg_bytes seg ++ tl) post).
  { apply mk_at; [exact Hd|reflexivity|exact He|exact Hel|exact Hlen|exact Hsmall|exact Hbytes]. }
  apply wp_list_cont_S. unfold eofM, rq. apply wp_bind, wp_get. rewrite (at_not_eof _ _ _ _ _ Hat0).
  apply wp_bind. eapply wp_conseq.
  { eapply (next_name _ s0 g pl pre seg _ post sc ss a); [exact H|exact Hfree|lia|exact Hat0|exact Hok|reflexivity|exact Hsc|exact Hlsc|reflexivity]. }
  intros res s1 (-> & t1 & -> & H1). change (pres_eqb ROk ROk) with true. cbv iota.
  change (with_tree (with_r s0 (set_offset_raw (p_r s0) (lenN pre + 5))) t1) with (st1 (lenN pre + lenN (OP_NAME :: seg_bytes seg)) e t1 (sc :: ss) (e :: es)).
  eapply (K t1 _ (pl ++ [nam_pay h (lenN pre) name_zero; pth_pay h tbl (lenN pre + 1)])); [exact H1|apply post1_nameonly; assumption|lia|lia].
Qed.

Lemma ispec_blk bk k seg fa body : ISpec body -> ISpec1 (IBlk bk k seg fa body).
Proof.
  intros IHb fo fi off e t sc ss es g pl pre tl post a R Q H Hfree Hroom Hd Ho He Hel Hok Hbal Hsc Hlsc HR Hfi Hfo K.
  rename Hok into Hd_ok. cbn [item_okb] in Hd_ok.
  apply andb_prop in Hd_ok. destruct Hd_ok as [Hx Hbody_ok]. apply andb_prop in Hx. destruct Hx as [Hx Hpk].
  apply andb_prop in Hx. destruct Hx as [Hx Hfx]. apply andb_prop in Hx. destruct Hx as [Hx Hlfa]. apply Nat.eqb_eq in Hlfa.
  apply andb_prop in Hx. destruct Hx as [Hlead _]. apply pkglen_okb_adm in Hpk.
  set (l := bfx bk fa) in *. set (nf := length l) in *. set (lo := blo bk) in *.
  assert (Hws : map fst l = bk_ws bk) by (unfold l, bfx; apply map_fst_combine; lia).
  rewrite isz_blk in Hroom. rewrite icnt_blk in Hfi, Hfo. fold l nf in Hroom, Hfi, Hfo.
  rewrite enc_blk in Hd, He. fold l in Hd, He. subst off.
  set (v := k + lenN (seg_bytes seg ++ enc_fx l ++ enc_items body)) in *.
  assert (Hv : v = k + 4 + lenN (enc_fx l) + lenN (enc_items body)) by (unfold v; rewrite !lenN_app; change (lenN (seg_bytes seg)) with 4; lia).
  pose proof (lenN_enc_pkglen k v Hpk) as Hlk.
  pose proof (rep_len_g _ _ _ H) as Hlg. pose proof (rep_len_pool _ _ _ H) as Hlp.
  assert (Hsclt : sc < N.of_nat (length pl)) by (eapply pget_lt; eauto).
  assert (Ef : exists f', fi = S (S (S (S (S (S (nf + S (S f')))))))) by (exists (fi - nf - 8)%nat; lia). destruct Ef as (f' & ->).
  set (s0 := st1 (lenN pre) e t (sc :: ss) (e :: es)).
  assert (HlenI : lenN (enc_op (bk_op bk) ++ enc_pkglen k v ++ seg_bytes seg ++ enc_fx l ++ enc_items body) = lo + v).
  { rewrite !lenN_app, Hlk. change (lenN (enc_op (bk_op bk))) with lo. change (lenN (seg_bytes seg)) with 4. lia. }
  rewrite lenN_app, HlenI in He.
  assert (Hat0 : at_token (p_r s0) pre (enc_op (bk_op bk) ++ enc_pkglen k v ++ seg_bytes seg ++ enc_fx l ++ (enc_items body ++ tl)) post).
  { apply mk_at; [ |reflexivity| |exact Hel|exact Hlen|exact Hsmall|exact Hbytes].
    - rewrite Hd. rewrite <- !app_assoc. reflexivity.
    - rewrite !lenN_app, Hlk. change (lenN (enc_op (bk_op bk))) with lo. change (lenN (seg_bytes seg)) with 4. lia. }
  (* the header *)
  apply wp_list_cont_S. unfold eofM, rq. apply wp_bind, wp_get.
  assert (Hne : eof (p_r s0) = false).
  { destruct (enc_op_nonempty (bk_op bk)) as (x0 & l0 & Eop). rewrite Eop in Hat0. cbn [app] in Hat0. apply (at_not_eof _ _ _ _ _ Hat0). }
  rewrite Hne.
  apply wp_bind. eapply wp_conseq.
  { eapply (next_blk f' bk s0 g pl pre k v seg l _ post sc ss a);
      [exact H|exact Hfree|lia|exact Hat0|exact Hws|exact Hfx|exact Hpk|lia| |exact Hlead|reflexivity|exact Hsc|exact Hlsc|reflexivity].
    change (lenN (enc_op (bk_op bk))) with lo. cbn [s0 st1 p_r r_len]. lia. }
  cbv zeta. change (lenN (enc_op (bk_op bk))) with lo. fold nf.
  intros res s1 (-> & t1 & -> & H1). change (pres_eqb ROk ROk) with true. cbv iota.
  set (b := N.of_nat (length pl)) in *.
  set (off1 := lenN pre + lo + k + 4 + lenN (enc_fx l)). set (e1 := lenN pre + lo + v).
  set (pl1 := pl ++ blk_pays' s0 bk (lenN pre) k l) in *.
  assert (Hpl1 : pl1 = pl ++ blk_pay h bk (lenN pre) name_zero :: hd_pays h tbl bk (lenN pre) k fa ++ [sb_pay h (sb_off bk (lenN pre) k fa)]) by reflexivity.
  assert (Hl1 : length pl1 = (3 + nf + length pl)%nat).
  { rewrite Hpl1, app_length. cbn [length]. rewrite app_length, len_hd_pays. cbn [length]. fold l nf. lia. }
  set (s1 := st1 off1 e1 t1 (b + 2 + N.of_nat nf :: sc :: ss) (e1 :: e :: es)).
  assert (Es1 : after_blk s0 (2 + N.of_nat nf) off1 e1 t1 = s1).
  { unfold after_blk, s1, s0, st1. scbn. unfold set_pkgEnd_raw, set_offset_raw. cbn [r_data r_len r_offset r_pkgEnd p_r p_tree]. rewrite <- Hlp.
    fold b. replace (b + (2 + N.of_nat nf)) with (b + 2 + N.of_nat nf) by lia. reflexivity. }
  rewrite Es1.
  (* the body *)
  set (pre1 := pre ++ enc_op (bk_op bk) ++ enc_pkglen k v ++ seg_bytes seg ++ enc_fx l).
  assert (Hlp1 : lenN pre1 = off1).
  { unfold pre1, off1. rewrite !lenN_app, Hlk. change (lenN (enc_op (bk_op bk))) with lo. change (lenN (seg_bytes seg)) with 4. lia. }
  assert (Hsb1 : pget pl1 (b + 2 + N.of_nat nf) = Some (sb_pay h off1)).
  { rewrite Hpl1. unfold b. replace (N.of_nat (length pl) + 2 + N.of_nat nf) with (N.of_nat (length pl) + N.of_nat (S (S nf))) by lia.
    rewrite pget_app_new. unfold pget. rewrite Nat2N.id. rewrite nth_error_S, nth_error_app2 by (rewrite len_hd_pays; fold l nf; lia).
    rewrite len_hd_pays. fold l nf. rewrite Nat.sub_diag. reflexivity. }
  eapply (IHb fo _ off1 e1 t1 (b + 2 + N.of_nat nf) (sc :: ss) (e :: es) _ pl1 pre1 [] (tl ++ post) _ (R + 1)%nat Q);
    [exact H1|apply free_g_args; reflexivity|rewrite Hl1; lia| |symmetry; exact Hlp1| | |exact Hbody_ok|cbn [length]; rewrite Hbal; reflexivity|exact Hsb1|discriminate|lia|lia|lia|].
  { unfold pre1. rewrite Hd, app_nil_r, <- !app_assoc. reflexivity. }
  { rewrite Hlp1, app_nil_r. unfold off1, e1. lia. }
  { unfold e1. lia. }
  intros t2 g2 pl2 fo2 fi2 H2 P2 Hfi2 Hfo2.
  (* the end of the block *)
  destruct fi2 as [|fi2']; [lia|]. apply wp_list_cont_S. unfold eofM, rq. apply wp_bind, wp_get.
  assert (Eeof : eof (p_r (st1 (off1 + lenN (enc_items body)) e1 t2 (b + 2 + N.of_nat nf :: sc :: ss) (e1 :: e :: es))) = true).
  { unfold eof. cbn [st1 p_r r_pkgEnd r_offset]. apply N.leb_le. unfold e1, off1. lia. }
  rewrite Eeof.
  destruct fo2 as [|fo2']; [lia|].
  apply wp_list_end; [exact Hbal|exact Hel|].
  assert (P02 : Post1 g pl g2 pl2 sc (lay1_item h tbl b (lenN pre) (IBlk bk k seg fa body))).
  { apply post1_blk; [exact Hsclt|exact Hlg|]. rewrite <- Hpl1. fold b l nf. unfold nfx. fold l nf.
    replace (b + 3 + N.of_nat nf) with (N.of_nat (length pl1)) by lia. exact P2. }
  specialize (K t2 g2 pl2 fo2' fo2' H2 P02). rewrite enc_blk in K. fold l v in K. rewrite HlenI in K.
  replace (lenN pre + (lo + v)) with (off1 + lenN (enc_items body)) in K by (unfold off1; lia).
  apply K; lia.
Qed.

Lemma spec_leafhd lk seg fa :
  Spec (enc_op (lk_op lk) ++ seg_bytes seg ++ enc_fx (lfx lk fa)) (2 + length (lfx lk fa)) (2 + length (lfx lk fa))
       (lead_okb (seg_lead seg) && Nat.eqb (length fa) (length (lk_ws lk)) && fx_okb (lfx lk fa))
       (fun b off => [RN b (lf_pay h lk off name_zero) (leaf_row (b + 1) (lhd_pays h tbl lk off fa))]).
Proof.
  intros fo fi off e t sc ss es g pl pre tl post a R Q H Hfree Hroom Hd Ho He Hel Hok Hbal Hsc Hlsc HR Hfi Hfo K.
  apply andb_prop in Hok. destruct Hok as [Hx Hfx]. apply andb_prop in Hx. destruct Hx as [Hlead Hlfa]. apply Nat.eqb_eq in Hlfa.
  set (l := lfx lk fa) in *. set (nf := length l) in *. set (lo := llo lk) in *.
  assert (Hws : map fst l = lk_ws lk) by (unfold l, lfx; apply map_fst_combine; lia).
  subst off.
  pose proof (rep_len_g _ _ _ H) as Hlg. pose proof (rep_len_pool _ _ _ H) as Hlp.
  assert (Hsclt : sc < N.of_nat (length pl)) by (eapply pget_lt; eauto).
  assert (Ef : exists f', fi = S (S (S (S (S (nf + S (S f'))))))) by (exists (fi - nf - 7)%nat; lia). destruct Ef as (f' & ->).
  set (s0 := st1 (lenN pre) e t (sc :: ss) (e :: es)).
  assert (HlenI : lenN (enc_op (lk_op lk) ++ seg_bytes seg ++ enc_fx l) = lo + 4 + lenN (enc_fx l)).
  { rewrite !lenN_app. change (lenN (enc_op (lk_op lk))) with lo. change (lenN (seg_bytes seg)) with 4. lia. }
  assert (Hat0 : at_token (p_r s0) pre (enc_op (lk_op lk) ++ seg_bytes seg ++ enc_fx l ++ tl) post).
  { apply mk_at; [ |reflexivity| |exact Hel|exact Hlen|exact Hsmall|exact Hbytes].
    - rewrite Hd. rewrite <- !app_assoc. reflexivity.
    - rewrite <- !app_assoc in He. exact He. }
  (* the header *)
  apply wp_list_cont_S. unfold eofM, rq. apply wp_bind, wp_get.
  assert (Hne : eof (p_r s0) = false).
  { destruct (enc_op_nonempty (lk_op lk)) as (x0 & l0 & Eop). rewrite Eop in Hat0. cbn [app] in Hat0. apply (at_not_eof _ _ _ _ _ Hat0). }
  rewrite Hne.
  apply wp_bind. eapply wp_conseq.
  { eapply (next_leaf f' lk s0 g pl pre seg l _ post sc ss a);
      [exact H|exact Hfree|lia|exact Hat0|exact Hws|exact Hfx|exact Hlead|reflexivity|exact Hsc|exact Hlsc|reflexivity]. }
  cbv zeta. change (lenN (enc_op (lk_op lk))) with lo. fold nf.
  intros res s1 (-> & t1 & -> & H1). change (pres_eqb ROk ROk) with true. cbv iota.
  set (b := N.of_nat (length pl)) in *.
  set (off1 := lenN pre + lo + 4 + lenN (enc_fx l)).
  set (pl1 := pl ++ leaf_pays' s0 lk (lenN pre) l) in *.
  assert (Hpl1 : pl1 = pl ++ lf_pay h lk (lenN pre) name_zero :: lhd_pays h tbl lk (lenN pre) fa) by reflexivity.
  assert (Hl1 : length pl1 = (2 + nf + length pl)%nat).
  { rewrite Hpl1, app_length. cbn [length]. rewrite len_lhd_pays. fold l nf. lia. }
  change (with_tree (with_r s0 (set_offset_raw (p_r s0) off1)) t1) with (st1 off1 e t1 (sc :: ss) (e :: es)).
  replace off1 with (lenN pre + lenN (enc_op (lk_op lk) ++ seg_bytes seg ++ enc_fx l)) by (rewrite HlenI; unfold off1; lia).
  eapply (K t1 _ pl1); [exact H1|apply post1_leafhd; [exact Hsclt|exact Hlg]|lia|lia].
Qed.

Lemma spec_stmthd sk : Spec (enc_op (sk_op sk)) 1 1 true (fun b off => [RN b (st_pay h sk off) []]).
Proof.
  intros fo fi off e t sc ss es g pl pre tl post a R Q H Hfree Hroom Hd Ho He Hel Hok Hbal Hsc Hlsc HR Hfi Hfo K.
  set (lo := slo sk) in *. subst off.
  pose proof (rep_len_g _ _ _ H) as Hlg. pose proof (rep_len_pool _ _ _ H) as Hlp.
  assert (Hsclt : sc < N.of_nat (length pl)) by (eapply pget_lt; eauto).
  assert (Ef : exists f', fi = S (S (S (S (S f'))))) by (exists (fi - 5)%nat; lia). destruct Ef as (f' & ->).
  set (s0 := st1 (lenN pre) e t (sc :: ss) (e :: es)).
  assert (Hat0 : at_token (p_r s0) pre (enc_op (sk_op sk) ++ tl) post).
  { apply mk_at; [exact Hd|reflexivity|exact He|exact Hel|exact Hlen|exact Hsmall|exact Hbytes]. }
  (* the operator *)
  apply wp_list_cont_S. unfold eofM, rq. apply wp_bind, wp_get.
  assert (Hne : eof (p_r s0) = false).
  { destruct (enc_op_nonempty (sk_op sk)) as (x0 & l0 & Eop). rewrite Eop in Hat0. cbn [app] in Hat0. apply (at_not_eof _ _ _ _ _ Hat0). }
  rewrite Hne.
  apply wp_bind. eapply wp_conseq.
  { eapply (next_stmt f' sk s0 g pl pre _ post sc ss a);
      [exact H|exact Hfree|lia|exact Hat0|reflexivity|exact Hsc|exact Hlsc|reflexivity]. }
  change (lenN (enc_op (sk_op sk))) with lo.
  intros res s1 (-> & t1 & -> & H1). change (pres_eqb ROk ROk) with true. cbv iota.
  set (b := N.of_nat (length pl)) in *.
  set (off1 := lenN pre + lo).
  change (p_handle s0) with h in H1.
  set (pl1 := pl ++ [st_pay h sk (lenN pre)]) in *.
  assert (Hl1 : length pl1 = (1 + length pl)%nat) by (unfold pl1; rewrite app_length; cbn [length]; lia).
  change (with_tree (with_r s0 (set_offset_raw (p_r s0) off1)) t1) with (st1 off1 e t1 (sc :: ss) (e :: es)).
  eapply (K t1 _ pl1); [exact H1|apply post1_single; [exact Hsclt|exact Hlg]|lia|lia].
Qed.

Ltac lnorm := repeat (first [rewrite <- app_assoc | progress cbn [app]]).

(** ---- the elements of a package: constants and packages, parsed by the same loop ---- *)
Definition ESpec (els : list pel) : Prop :=
  Spec (enc_pels els) (pels_sz els) (pels_cnt els) (forallb pel_okb els) (fun b off => pel_trees h tbl b off els).
Definition ESpec1 (x : pel) : Prop :=
  Spec (enc_pel x) (pel_sz x) (pel_cnt x) (pel_okb x) (fun b off => [pel_tree h tbl b off x]).

Lemma pel_tree1_rsizes x b off : rsizes [pel_tree h tbl b off x] = pel_sz x.
Proof. cbn [rsizes fold_right]. rewrite pel_tree_rsize. lia. Qed.
Lemma pel_tree1_nodes x b off y : In y (rnodesl [pel_tree h tbl b off x]) -> b <= y < b + N.of_nat (pel_sz x).
Proof. unfold rnodesl. cbn [flat_map]. rewrite app_nil_r. apply pel_tree_nodes. Qed.

Lemma espec_cons x rest : ESpec1 x -> ESpec rest -> ESpec (x :: rest).
Proof. exact (spec_app _ _ _ _ _ _ _ _ _ _ (pel_tree1_rsizes x) (pel_tree1_nodes x)). Qed.

Lemma espec_leaf d : ESpec1 (PLeaf d).
Proof.
  intros fo fi off e t sc ss es g pl pre tl post a R Q H Hfree Hroom Hd Ho He Hel Hok Hbal Hsc Hlsc HR Hfi Hfo K.
  rename Hok into Hdok. cbn [pel_okb] in Hdok. cbn [pel_sz] in Hroom. cbn [pel_cnt] in Hfi, Hfo. cbn [enc_pel] in Hd, He, K. subst off.
  pose proof (rep_len_g _ _ _ H) as Hlg.
  assert (Hsclt : sc < N.of_nat (length pl)) by (eapply pget_lt; eauto).
  set (b := N.of_nat (length pl)) in *.
  set (s0 := st1 (lenN pre) e t (sc :: ss) (e :: es)).
  assert (Ef : exists f', fi = S (S (S (S f')))) by (exists (fi - 4)%nat; lia). destruct Ef as (f' & ->).
  apply wp_list_cont_S. unfold eofM, rq. apply wp_bind, wp_get.
  assert (Hcont : forall t1 (pre1 : list N), lenN pre1 = lenN pre + lenN (enc_targ d) ->
            Rep t1 (g_head g sc) (pl ++ [targ_pay h tbl (lenN pre) d]) ->
            wp False (list_cont fo (S (S (S f')))) (st1 (lenN pre1) e t1 (sc :: ss) (e :: es)) Q).
  { intros t1 pre1 Hlp1 H1. rewrite Hlp1. eapply (K t1 _ (pl ++ [targ_pay h tbl (lenN pre) d])); [exact H1|apply post1_single; assumption|lia|lia]. }
  destruct d as [d|bs]; cbn [targ_okb enc_targ] in *.
  + unfold cst_okb in Hdok. apply andb_prop in Hdok. destruct Hdok as [Hc Hv]. apply N.ltb_lt in Hv.
    assert (Hat : at_token (p_r s0) pre (enc_op (d_op d) ++ Grammar.le_bytes (const_bytes (d_op d)) (d_v d) ++ tl) post).
    { apply mk_at; [ |reflexivity| |exact Hel|exact Hlen|exact Hsmall|exact Hbytes].
      - rewrite Hd. unfold enc_const. rewrite <- !app_assoc. reflexivity.
      - rewrite lenN_app in He. unfold enc_const in He. rewrite !lenN_app in *. lia. }
    assert (Hne : eof (p_r s0) = false).
    { destruct (enc_op_nonempty (d_op d)) as (x & l & Eop). rewrite Eop in Hat. cbn [app] in Hat. apply (at_not_eof _ _ _ _ _ Hat). }
    rewrite Hne.
    apply wp_bind. eapply wp_conseq.
    { eapply (next_const _ s0 g pl pre (d_op d) (d_v d) (tl) post sc ss a);
        [exact H|exact Hfree|lia|exact Hat|exact Hc|exact Hv|reflexivity|exact Hsc|exact Hlsc]. }
    intros res s1 (-> & t1 & -> & H1). change (pres_eqb ROk ROk) with true. cbv iota.
    set (pre1 := pre ++ enc_const d).
    assert (Hlp1 : lenN pre1 = lenN pre + lenN (enc_const d)) by (unfold pre1; apply lenN_app).
    assert (Eoff : lenN pre + lenN (enc_op (d_op d)) + N.of_nat (const_bytes (d_op d)) = lenN pre1) by (rewrite Hlp1, lenN_enc_const; lia).
    rewrite Eoff. change (with_tree (with_r s0 (set_offset_raw (p_r s0) (lenN pre1))) t1) with (st1 (lenN pre1) e t1 (sc :: ss) (e :: es)).
    apply (Hcont t1 pre1 Hlp1 H1).
  + assert (Hasc : Forall ascii_char bs).
    { unfold str_okb in Hdok. rewrite forallb_forall in Hdok. apply Forall_forall. intros c Hc. specialize (Hdok c Hc).
      apply andb_prop in Hdok. destruct Hdok as [A B]. apply N.leb_le in A. apply N.leb_le in B. unfold ascii_char. lia. }
    assert (Hat : at_token (p_r s0) pre (aml_pOpStringPrefix :: (bs ++ [0]) ++ tl) post).
    { apply mk_at; [ |reflexivity| |exact Hel|exact Hlen|exact Hsmall|exact Hbytes].
      - rewrite Hd. cbn [app]. rewrite <- !app_assoc. reflexivity.
      - exact He. }
    rewrite (at_not_eof _ _ _ _ _ Hat).
    apply wp_bind. eapply wp_conseq.
    { eapply (next_string _ s0 g pl pre bs (tl) post sc ss a); [exact H|exact Hfree|lia|exact Hat|exact Hasc|reflexivity|exact Hsc|exact Hlsc]. }
    intros res s1 (-> & t1 & -> & H1). change (pres_eqb ROk ROk) with true. cbv iota.
    set (pre1 := pre ++ OP_STRING :: bs ++ [0]).
    assert (Hlp1 : lenN pre1 = lenN pre + lenN (OP_STRING :: bs ++ [0])) by (unfold pre1; apply lenN_app).
    assert (Eoff : lenN pre + 1 + lenN bs + 1 = lenN pre1) by (rewrite Hlp1, lenN_cons, lenN_app; change (lenN [0]) with 1; lia).
    rewrite Eoff. change (with_tree (with_r s0 (set_offset_raw (p_r s0) (lenN pre1))) t1) with (st1 (lenN pre1) e t1 (sc :: ss) (e :: es)).
    apply (Hcont t1 pre1 Hlp1 H1).
Qed.

Lemma espec_sub k n els : ESpec els -> ESpec1 (PSub k n els).
Proof.
  intros IHb fo fi off e t sc ss es g pl pre tl post a R Q H Hfree Hroom Hd Ho He Hel Hok Hbal Hsc Hlsc HR Hfi Hfo K.
  rename Hok into Hd_ok. rewrite pel_okb_sub in Hd_ok.
  apply andb_prop in Hd_ok. destruct Hd_ok as [Hx Hel_ok]. apply andb_prop in Hx. destruct Hx as [Hn Hpk]. apply pkglen_okb_adm in Hpk. apply N.ltb_lt in Hn.
  rewrite pel_sz_sub in Hroom. rewrite pel_cnt_sub in Hfi, Hfo. rewrite enc_pel_sub in Hd, He. subst off.
  set (v := k + lenN ([n] ++ enc_pels els)) in *.
  assert (Hv : v = k + 1 + lenN (enc_pels els)) by (unfold v; rewrite lenN_app; change (lenN [n]) with 1; lia).
  pose proof (lenN_enc_pkglen k v Hpk) as Hlk.
  pose proof (rep_len_g _ _ _ H) as Hlg. pose proof (rep_len_pool _ _ _ H) as Hlp.
  assert (Hsclt : sc < N.of_nat (length pl)) by (eapply pget_lt; eauto).
  assert (Ef : exists f', fi = S (S (S (S (S (S (S (S f')))))))) by (exists (fi - 8)%nat; lia). destruct Ef as (f' & ->).
  set (b := N.of_nat (length pl)) in *.
  set (s0 := st1 (lenN pre) e t (sc :: ss) (e :: es)).
  assert (HlenI : lenN ([OP_PACKAGE] ++ enc_pkglen k v ++ [n] ++ enc_pels els) = 1 + v).
  { rewrite !lenN_app, Hlk. change (lenN [OP_PACKAGE]) with 1. change (lenN [n]) with 1. lia. }
  rewrite lenN_app, HlenI in He.
  assert (Hat0 : at_token (p_r s0) pre (enc_op aml_pOpPackage ++ enc_pkglen k v ++ enc_fx [(W1, n)] ++ (enc_pels els ++ tl)) post).
  { apply mk_at; [ |reflexivity| |exact Hel|exact Hlen|exact Hsmall|exact Hbytes].
    - rewrite Hd. cbn [enc_fx fw_enc]. change (enc_op aml_pOpPackage) with [OP_PACKAGE]. lnorm. reflexivity.
    - cbn [enc_fx fw_enc]. change (enc_op aml_pOpPackage) with [OP_PACKAGE]. rewrite !lenN_app, Hlk. change (lenN [OP_PACKAGE]) with 1. change (lenN [n]) with 1. change (lenN (@nil N)) with 0. lia. }
  (* the header of the package *)
  apply wp_list_cont_S. unfold eofM, rq. apply wp_bind, wp_get.
  assert (Hne : eof (p_r s0) = false) by (change (enc_op aml_pOpPackage) with [0x12] in Hat0; cbn [app] in Hat0; apply (at_not_eof _ _ _ _ _ Hat0)).
  rewrite Hne.
  apply wp_bind. eapply wp_conseq.
  { eapply (next_pkg f' s0 g pl pre k v n _ post sc ss a);
      [exact H|exact Hfree|lia|exact Hat0|exact Hn|exact Hpk|lia| |reflexivity|exact Hsc|exact Hlsc|reflexivity].
    cbn [s0 st1 p_r r_len]. lia. }
  intros res s1 (-> & t1 & -> & H1). change (pres_eqb ROk ROk) with true. cbv iota.
  set (off1 := lenN pre + 1 + k + 1). set (e1 := lenN pre + 1 + v).
  set (pl1 := pl ++ pkg_pays' s0 (lenN pre) k n) in *.
  assert (Hpl1 : pl1 = pl ++ [pkg_pay h (lenN pre); num_pay h W1 (lenN pre + 1 + k) n; sb_pay h (lenN pre + 1 + k + 1)]) by reflexivity.
  assert (Hl1 : length pl1 = (3 + length pl)%nat) by (unfold pl1; rewrite app_length; cbn [pkg_pays' length]; lia).
  set (s1 := st1 off1 e1 t1 (b + 2 :: sc :: ss) (e1 :: e :: es)).
  assert (Es1 : after_blk s0 2 off1 e1 t1 = s1).
  { unfold after_blk, s1, s0, st1. scbn. unfold set_pkgEnd_raw, set_offset_raw. cbn [r_data r_len r_offset r_pkgEnd p_r p_tree]. rewrite <- Hlp. reflexivity. }
  rewrite Es1.
  (* the elements *)
  set (pre1 := pre ++ [OP_PACKAGE] ++ enc_pkglen k v ++ [n]).
  assert (Hlp1 : lenN pre1 = off1).
  { unfold pre1, off1. rewrite !lenN_app, Hlk. change (lenN [OP_PACKAGE]) with 1. change (lenN [n]) with 1. lia. }
  assert (Hsb1 : pget pl1 (b + 2) = Some (sb_pay h off1)).
  { rewrite Hpl1. unfold b. rewrite pget_app_new. reflexivity. }
  eapply (IHb fo _ off1 e1 t1 (b + 2) (sc :: ss) (e :: es) _ pl1 pre1 [] (tl ++ post) _ (R + 1)%nat Q);
    [exact H1|apply free_g_args; reflexivity|rewrite Hl1; lia| |symmetry; exact Hlp1| | |exact Hel_ok|cbn [length]; rewrite Hbal; reflexivity|exact Hsb1|discriminate|lia|lia|lia|].
  { unfold pre1. rewrite Hd, app_nil_r. lnorm. reflexivity. }
  { rewrite Hlp1, app_nil_r. unfold off1, e1. lia. }
  { unfold e1. lia. }
  intros t2 g2 pl2 fo2 fi2 H2 P2 Hfi2 Hfo2.
  (* the end of the package *)
  destruct fi2 as [|fi2']; [lia|]. apply wp_list_cont_S. unfold eofM, rq. apply wp_bind, wp_get.
  assert (Eeof : eof (p_r (st1 (off1 + lenN (enc_pels els)) e1 t2 (b + 2 :: sc :: ss) (e1 :: e :: es))) = true).
  { unfold eof. cbn [st1 p_r r_pkgEnd r_offset]. apply N.leb_le. unfold e1, off1. lia. }
  rewrite Eeof.
  destruct fo2 as [|fo2']; [lia|].
  apply wp_list_end; [exact Hbal|exact Hel|].
  assert (P02 : Post1 g pl g2 pl2 sc [pel_tree h tbl b (lenN pre) (PSub k n els)]).
  { apply post1_sub; [exact Hsclt|exact Hlg|]. rewrite <- Hpl1. fold b.
    replace (b + 3) with (N.of_nat (length pl1)) by (rewrite Hl1; unfold b; lia). exact P2. }
  specialize (K t2 g2 pl2 fo2' fo2' H2 P02). rewrite enc_pel_sub in K. fold v in K. rewrite HlenI in K.
  replace (lenN pre + (1 + v)) with (off1 + lenN (enc_pels els)) in K by (unfold off1; lia).
  apply K; lia.
Qed.

Theorem espec_all : forall els, ESpec els.
Proof.
  induction els as [|a rest IH|k n es rest IHe IH] using pels_ind.
  - exact spec_nil.
  - apply espec_cons; [apply espec_leaf|exact IH].
  - apply espec_cons; [apply espec_sub; exact IHe|exact IH].
Qed.

Lemma spec_targs ta : Spec (enc_ta ta) (length ta) (length ta) (forallb targ_okb ta) (fun b off => leaf_row b (cst_pays h tbl off ta)).
Proof.
  induction ta as [|x r IH]; [exact spec_nil|].
  exact (spec_app _ _ _ _ _ _ _ _ _ _ (pel_tree1_rsizes (PLeaf x)) (pel_tree1_nodes (PLeaf x)) (espec_leaf x) IH).
Qed.

Lemma ispec_leaf lk seg fa ta : ISpec1 (ILeaf lk seg fa ta).
Proof.
  unfold ISpec1. rewrite enc_leaf. rewrite (app_assoc (enc_op (lk_op lk))), (app_assoc _ (enc_fx (lfx lk fa))), <- (app_assoc (enc_op (lk_op lk))).
  refine (spec_weaken _ _ _ _ _ _ _ _ _ _ _ (spec_app _ _ _ _ _ _ _ _ _ _ _ _ (spec_leafhd lk seg fa) (spec_targs ta))).
  - rewrite icnt_leaf. lia.
  - cbn [item_okb]. intros E. apply andb_prop in E. destruct E as [E Ht]. apply andb_prop in E. destruct E as [E _].
    apply andb_prop in E. destruct E as [E Hf]. apply andb_prop in E. destruct E as [E Hl]. apply andb_prop in E. destruct E as [Hd _].
    rewrite Hd, Hl, Hf, Ht. reflexivity.
  - intros b off. cbn [lay1_item app]. unfold nlf, ta_off, llo. rewrite !lenN_app. change (lenN (seg_bytes seg)) with 4.
    f_equal. f_equal; [lia|f_equal; lia].
  - intros b off. cbn [rsizes fold_right]. rewrite rsize_eq, leaf_row_rsizes, len_lhd_pays. lia.
  - intros b off x Hx. unfold rnodesl in Hx. cbn [flat_map] in Hx. rewrite app_nil_r, rnodes_eq in Hx.
    destruct Hx as [<-|Hx]; [lia|]. apply leaf_row_nodes in Hx. rewrite len_lhd_pays in Hx. lia.
Qed.

Lemma ispec_stmt sk ta : ISpec1 (IStmt sk ta).
Proof.
  refine (spec_weaken _ _ _ _ _ _ _ _ _ _ (fun _ _ => eq_refl) (spec_app _ _ _ _ _ _ _ _ _ _ _ _ (spec_stmthd sk) (spec_targs ta))).
  - reflexivity.
  - cbn [item_okb]. intros E. apply andb_prop in E. destruct E as [_ E]. exact E.
  - reflexivity.
  - intros b off x Hx. cbn [rnodesl flat_map rnodes app In] in Hx. lia.
Qed.

Lemma name_tree_rsizes b off : rsizes [RN b (nam_pay h off name_zero) [RN (b + 1) (pth_pay h tbl (off + 1)) []]] = 2%nat.
Proof. reflexivity. Qed.
Lemma name_tree_nodes b off x : In x (rnodesl [RN b (nam_pay h off name_zero) [RN (b + 1) (pth_pay h tbl (off + 1)) []]]) -> b <= x < b + N.of_nat 2.
Proof. cbn [rnodesl flat_map rnodes app In]. lia. Qed.

Lemma ispec_name d : ISpec1 (IName d).
Proof.
  refine (spec_weaken _ _ _ _ _ _ _ _ _ _ (fun _ _ => eq_refl) (spec_app _ _ _ _ _ _ _ _ _ _ name_tree_rsizes name_tree_nodes (spec_nameonly (d_seg d)) (espec_leaf (TInt d)))); [reflexivity|].
  cbn [item_okb pel_okb targ_okb]. unfold decl_okb, cst_okb. intros E.
  apply andb_prop in E. destruct E as [E _]. apply andb_prop in E. destruct E as [E Hv]. apply andb_prop in E. destruct E as [Hl Hc].
  rewrite Hl, Hc, Hv. reflexivity.
Qed.

Lemma ispec_pkg seg k n elems : ISpec1 (IPkg seg k n elems).
Proof.
  refine (spec_weaken _ _ _ _ _ _ _ _ _ _ (fun _ _ => eq_refl) (spec_app _ _ _ _ _ _ _ _ _ _ name_tree_rsizes name_tree_nodes (spec_nameonly seg) (espec_sub k n elems (espec_all elems)))).
  - cbn [icnt]. rewrite pel_cnt_sub. fold (pels_cnt elems). lia.
  - cbn [item_okb]. rewrite pel_okb_sub. intros E.
    apply andb_prop in E. destruct E as [E He]. apply andb_prop in E. destruct E as [E Hp]. apply andb_prop in E. destruct E as [E Hn]. apply andb_prop in E. destruct E as [Hl _].
    rewrite Hl, Hn, Hp, He. reflexivity.
Qed.

Theorem ispec_all : forall its, ISpec its.
Proof.
  induction its as [|d rest IH|bk k seg fa body rest IHb IH|lk seg fa ta rest IH|seg k n elems rest IH|sk ta rest IH] using items_ind.
  - exact spec_nil.
  - apply ispec_cons; [apply ispec_name|exact IH].
  - apply ispec_cons; [apply ispec_blk; exact IHb|exact IH].
  - apply ispec_cons; [apply ispec_leaf|exact IH].
  - apply ispec_cons; [apply ispec_pkg|exact IH].
  - apply ispec_cons; [apply ispec_stmt|exact IH].
Qed.
End ItemsSpec.

(** fuel: [icnts its] + [R = 9] for [ispec_all] + one turn each for entering the object list, its end and the outer loop *)
Theorem first_f1 its fuel tree g pl h hdr a0 :
  let data := hdr ++ enc_items its in
  lenN hdr = aml_sizeofSDTHeader -> Forall (fun b => b < 256) data -> lenN data < two32 ->
  Rep tree g pl -> g_free g = [] -> N.of_nat (length pl) + N.of_nat (iszs its) < InvalidIndex ->
  pget pl 0 = Some a0 -> y_op a0 <> opFreed -> forallb item_okb its = true -> (icnts its + 12 <= fuel)%nat ->
  wp False (first_pass fuel) (init_state tree [] h data) (fun res s' => res = ROk /\ exists t1 g1 pl1,
    s' = after_first t1 [] h data /\ Rep t1 g1 pl1 /\
    Post1 g pl g1 pl1 0 (lay1 h 0 (N.of_nat (length pl)) aml_sizeofSDTHeader its)).
Proof.
  intros data Hhdr Hbytes Hsmall H Hfree Hroom H0 Hl0 Hok Hfuel.
  assert (Hlen : lenN data = aml_sizeofSDTHeader + lenN (enc_items its)) by (unfold data; rewrite lenN_app, Hhdr; reflexivity).
  rewrite init_state_eq by lia.
  destruct fuel as [|f1]; [lia|].
  unfold first_pass. apply wp_bind. apply wp_scopeEnter. scbn.
  apply wp_parseObjectList_cont; [scbn; discriminate|].
  change (mkP (mkReader data (lenN data) aml_sizeofSDTHeader (lenN data)) tree [0] [lenN data] (lenN data) 0 0 0 false h ([] ++ [data]))
    with (st1 h data (lenN data) (lenN data) [data] aml_sizeofSDTHeader (lenN data) tree [0] [lenN data]).
  eapply (ispec_all h data (lenN data) (lenN data) [data] eq_refl Hsmall Hbytes its f1 f1 aml_sizeofSDTHeader (lenN data) tree 0 [] [] g pl hdr [] [] a0 9%nat);
    [exact H|exact Hfree|exact Hroom|unfold data; rewrite !app_nil_r; reflexivity|symmetry; exact Hhdr|rewrite app_nil_r, Hhdr, Hlen; lia|lia|exact Hok|reflexivity|exact H0|exact Hl0|lia|lia|lia|].
  intros t1 g1 pl1 fo fi H1 P1 Hfi Hfo.
  destruct fi as [|fi']; [lia|]. apply wp_list_cont_S. unfold eofM, rq. apply wp_bind, wp_get.
  assert (Eeof : eof (p_r (st1 h data (lenN data) (lenN data) [data] (aml_sizeofSDTHeader + lenN (enc_items its)) (lenN data) t1 [0] [lenN data])) = true).
  { unfold eof. cbn [st1 p_r r_pkgEnd r_offset]. apply N.leb_le. lia. }
  rewrite Eeof. unfold list_end.
  apply wp_bind, wp_get. apply wp_bind, wp_get. scbn. cbn [length Nat.eqb].
  apply wp_bind. unfold wp at 1, scopeExit. scbn.
  apply wp_bind. unfold wp at 1, popPkgEnd. scbn. cbv zeta iota beta.
  destruct fo as [|fo']; [lia|]. rewrite parseObjectList_S. apply wp_bind, wp_get. scbn. apply wp_ret.
  split; [reflexivity|]. exists t1, g1, pl1. split; [|split; [exact H1|exact P1]].
  unfold after_first, st1. rewrite <- Hlen. reflexivity.
Qed.
