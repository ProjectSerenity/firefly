(** C11: steps of connectNamedObjArgs on the tree the first pass builds for a flat list of
    [Name(<segment>, <integer constant>)] statements (ParserNames1.v), over any tree related to a forest by [R]: the
    invariant [TR] and the walk over childless objects ([CN_leaf], [CNloop_leaf]).  It stands alone: nothing imports
    this file. *)
From Coq Require Import NArith Arith List Bool Lia.
From Coq Require Import ZifyBool ZifyN ZifyNat.
From FF Require Import Lib.Word Gen.Consts_device_acpi_aml Gen.Consts_aml_tree Aml.Stream Aml.Lex Aml.LexProofs
  Aml.Grammar Aml.View Aml.WfProgram Aml.LexRoundtrip
  Aml.Tree Aml.TreeSpec Aml.TreeProofs Aml.TreeProofsOps Aml.TreeProofsFind Aml.Parser
  Aml.ParserTotalTree Aml.ParserTotalTree2 Aml.ParserTotalLex Aml.ParserTotalTable Aml.ParserTotalBase Aml.ParserTotalLeaf
  Aml.ParserTotalFirst Aml.ParserNames1.
Import ListNotations.
Local Open Scope N_scope.

(** ---- the invariant of the tree passes, without the reader ---- *)
Record TR (s : pstate) (g : ghost) : Prop := mkTR {
  tr_R : R (p_tree s) g;
  tr_info : info_valid (p_tree s)
}.

Lemma TR_live_get s g p : TR s g -> glive g p -> exists o, tget (p_tree s) p = Some o /\ o_opcode o <> opFreed.
Proof. intros H Hl. apply (R_live_glive _ _ (tr_R _ _ H)) in Hl. exact Hl. Qed.

Lemma TR_ObjectAt s g p : TR s g -> glive g p -> ObjectAt (p_tree s) p = Some p.
Proof.
  intros H Hl. destruct (TR_live_get _ _ _ H Hl) as (o & Hg & Ho).
  eapply ObjectAt_live; eauto. apply (R_bound _ _ (tr_R _ _ H)).
Qed.

Lemma TR_pframe s g t' g' : TR s g -> R t' g' -> pframe (p_tree s) t' -> TR (with_tree s t') g'.
Proof. intros [A B] HR Hf. constructor; auto. eapply info_valid_pframe; eauto. Qed.

(** first / last / siblings of an object whose child list is known *)
Lemma TR_links s g x o : TR s g -> tget (p_tree s) x = Some o -> o_opcode o <> opFreed ->
  o_first o = hd InvalidIndex (kids g x) /\ o_last o = last (kids g x) InvalidIndex.
Proof. intros H Hg Hl. destruct (R_kids _ _ (tr_R _ _ H) _ _ Hg Hl) as (A & B & _). auto. Qed.

Lemma TR_sibling s g p l1 c l2 : TR s g -> glive g p -> kids g p = l1 ++ c :: l2 ->
  exists o, tget (p_tree s) c = Some o /\ o_opcode o <> opFreed /\ o_parent o = p /\
            o_prev o = last l1 InvalidIndex /\ o_next o = hd InvalidIndex l2 /\ o_index o = c.
Proof.
  intros H Hl Hk. destruct (TR_live_get _ _ _ H Hl) as (po & Hpo & Hlpo).
  destruct (R_kids _ _ (tr_R _ _ H) _ _ Hpo Hlpo) as (_ & _ & Hch & _). rewrite Hk in Hch.
  destruct (chain_mid _ _ _ _ _ Hch) as (o & Ho & Hlo & Hp & Hpv & Hnx).
  exists o. repeat split; auto. apply (R_index _ _ (tr_R _ _ H) _ _ Ho).
Qed.

(** ---- connectNamedObjArgs on an object without children ---- *)
Lemma CN_leaf P f x s g (Q : pres -> pstate -> Prop) :
  TR s g -> glive g x -> kids g x = [] -> Q ROk s -> wp P (connectNamedObjArgs (2 + f) x) s Q.
Proof.
  intros H Hl Hk HQ. change (2 + f)%nat with (S (S f)). cbn [connectNamedObjArgs].
  apply wp_bind. apply wp_objectAt'; [apply (TR_ObjectAt _ _ _ H Hl)|].
  destruct (TR_live_get _ _ _ H Hl) as (o & Ho & Hlo).
  apply wp_bind. apply wp_rdf. exists o. split; [exact Ho|].
  destruct (TR_links _ _ _ _ H Ho Hlo) as (_ & Hlast). rewrite Hlast, Hk. cbn [last].
  cbn [connectNamed_loop]. rewrite N.eqb_refl. apply wp_ret. exact HQ.
Qed.

Lemma live_not_Inv s g x : TR s g -> glive g x -> (x =? InvalidIndex) = false.
Proof.
  intros H Hl. destruct (TR_live_get _ _ _ H Hl) as (o & Ho & _). apply N.eqb_neq.
  eapply (R_pos_not_Inv _ _ (tr_R _ _ H)); eauto.
Qed.

(** a child without children of its own is stepped over *)
Lemma CNloop_leaf P f obj x l1 l2 s g (Q : pres -> pstate -> Prop) :
  TR s g -> glive g obj -> kids g obj = l1 ++ x :: l2 -> kids g x = [] ->
  wp P (connectNamed_loop (2 + f) obj (last l1 InvalidIndex)) s Q ->
  wp P (connectNamed_loop (3 + f) obj x) s Q.
Proof.
  intros H Hl Hk Hkx K. change (3 + f)%nat with (S (2 + f)). cbn [connectNamed_loop].
  assert (Hin : In x (kids g obj)) by (rewrite Hk; apply in_or_app; right; left; reflexivity).
  destruct ((R_gwf _ _ (tr_R _ _ H)) _ _ Hin) as (_ & Hlx).
  rewrite (live_not_Inv _ _ _ H Hlx).
  apply wp_bind. apply wp_objectAt'; [apply (TR_ObjectAt _ _ _ H Hlx)|].
  destruct (TR_sibling _ _ _ _ _ _ H Hl Hk) as (xo & Hxo & Hlxo & _ & Hprev & _ & Hidx).
  apply wp_bind. apply wp_rdf. exists xo. split; [exact Hxo|]. rewrite Hidx.
  apply wp_bind. apply (CN_leaf P f x s g); auto.
  cbn [pres_eqb negb]. cbv iota.
  apply wp_bind. apply wp_rdo. exists xo. split; [exact Hxo|].
  pose proof (tr_info _ _ H _ _ Hxo Hlxo) as Hinfo.
  destruct (opInfo (o_infoIndex xo)) as [[[op fl] af]|] eqn:Erow; [|contradiction].
  apply wp_bind. eapply wp_info; [exact Erow|].
  apply wp_bind, wp_get.
  destruct (TR_links _ _ _ _ H Hxo Hlxo) as (Hfirst & _). rewrite Hkx in Hfirst. cbn [hd] in Hfirst.
  rewrite Hfirst, N.eqb_refl. rewrite orb_true_r. cbn [orb].
  apply wp_bind. apply wp_rdf. exists xo. split; [exact Hxo|]. rewrite Hprev. exact K.
Qed.
