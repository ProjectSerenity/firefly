(** Loading tables.  [load [payload]] - CreateDefaultScopes on an empty tree, then ParseAML of the image of
    [payload] with handle 1 - never panics, for every payload of bytes of at most 10000 bytes (the bound comes from the
    generous quadratic memory hypothesis of parseAML_never_panics); a successful ParseAML re-establishes the invariant [INV] of
    the load loop, so loading any number of tables that satisfy the size condition [SEQ] never panics. *)
From Coq Require Import NArith Arith List Bool Lia.
From Coq Require Import ZifyBool ZifyN ZifyNat.
From FF Require Import Lib.Word Gen.Consts_device_acpi_aml Gen.Consts_aml_tree Aml.Stream Aml.Lex Aml.LexProofs
  Aml.Tree Aml.Parser Aml.ParserProofs Aml.TreeSpec Aml.TreeProofs Aml.TreeProofsOps Aml.TreeProofsFind Aml.TreeProofsAnc
  Aml.ParserTotalTree Aml.ParserTotalTree2 Aml.ParserTotalLex Aml.ParserTotalTable Aml.ParserTotalBase Aml.ParserTotalLeaf
  Aml.ParserTotalFrame Aml.ParserTotalFirst Aml.ParserTotalConn Aml.ParserTotalNonNamed Aml.ParserTotalCalls Aml.ParserTotalReloc
  Aml.ParserTotalMerge Aml.ParserTotalResolve Aml.ParserTotalDefer Aml.ParserTotalDeferW Aml.ParserTotalDeferV
  Aml.ParserTotalTyped Aml.ParserTotalShape Aml.ParserTotalChain Aml.ParserTotalConn2 Aml.ParserTotalPass2
  Aml.ParserTotalBenign Aml.ParserTotalFirst2 Aml.ParserTotalNameLex Aml.ParserTotalGoodPath Aml.ParserTotalPass1 Aml.ParserTotalHandle.
Import ListNotations.
Local Open Scope N_scope.

(** ---- the pool CreateDefaultScopes builds, as a history ---- *)
Definition ds_ops : list op :=
  [ OpNewNamed opScopeBlock 0 (name_of_list [0x5c; 0; 0; 0]);
    OpNewNamed opScopeBlock 0 (name_of_list [0x5f; 0x47; 0x50; 0x45]); OpAppend 0 1;
    OpNewNamed opScopeBlock 0 (name_of_list [0x5f; 0x50; 0x52; 0x5f]); OpAppend 0 2;
    OpNewNamed opScopeBlock 0 (name_of_list [0x5f; 0x53; 0x42; 0x5f]); OpAppend 0 3;
    OpNewNamed opScopeBlock 0 (name_of_list [0x5f; 0x53; 0x49; 0x5f]); OpAppend 0 4;
    OpNewNamed opScopeBlock 0 (name_of_list [0x5f; 0x54; 0x5a; 0x5f]); OpAppend 0 5 ].
Definition ds_tree : T := match run (@NewObjectTree value) ds_ops with Ok t => t | _ => NewObjectTree end.
Definition ds_ghost : ghost := arun ghost0 ds_ops.

Lemma ds_create : CreateDefaultScopes (@NewObjectTree value) 0 = Ok ds_tree.
Proof. vm_compute. reflexivity. Qed.
Lemma ds_run : run (@NewObjectTree value) ds_ops = Ok ds_tree.
Proof. vm_compute. reflexivity. Qed.

Ltac ds_new := split; [vm_compute; discriminate | split; [first [left; vm_compute; discriminate | right; vm_compute; reflexivity] | intros _; vm_compute; reflexivity]].
Ltac ds_live := split; [vm_compute; reflexivity|vm_compute; intuition discriminate].
Ltac ds_app := split; [ds_live|split; [ds_live|split; [apply groot_chk; vm_compute; reflexivity|
  let D := fresh in intros D; apply desc_leaf in D; [discriminate|vm_compute; reflexivity]]]].

Lemma ds_legal : legal_seq ghost0 ds_ops.
Proof.
  unfold ds_ops. cbn [legal_seq legal].
  split; [ds_new|]. split; [ds_new|]. split; [ds_app|]. split; [ds_new|]. split; [ds_app|]. split; [ds_new|]. split; [ds_app|].
  split; [ds_new|]. split; [ds_app|]. split; [ds_new|]. split; [ds_app|]. exact I.
Qed.

Lemma ds_R : R ds_tree ds_ghost.
Proof.
  destruct (run_R ds_ops (@NewObjectTree value) ghost0 R_empty ds_legal) as (t' & Hrun & HR').
  unfold ds_tree, ds_ghost. rewrite Hrun. exact HR'.
Qed.

Lemma ds_all (P : N -> Obj -> Prop) :
  (forall n o, (n < 6)%nat -> nth_error (t_pool ds_tree) n = Some o -> P (N.of_nat n) o) -> forall i o, tget ds_tree i = Some o -> P i o.
Proof.
  intros HP. apply pool_cases. intros n o Hn. apply HP; [|exact Hn].
  assert (Hl : length (t_pool ds_tree) = 6%nat) by (vm_compute; reflexivity). rewrite <- Hl. apply nth_error_Some. rewrite Hn. discriminate.
Qed.

Ltac ds_cases n Hlt Hn o tac :=
  do 6 (destruct n as [|n]; [vm_compute in Hn; inversion Hn; subst o; clear Hn; solve [tac]|]); exfalso; lia.

(** ---- lengths and bytes of the image ---- *)
Lemma le_bytes_length cnt : forall v, length (le_bytes cnt v) = cnt.
Proof. induction cnt as [|c IH]; intros v; cbn [le_bytes length]; [reflexivity|rewrite IH; reflexivity]. Qed.
Lemma le_bytes_small cnt : forall v, Forall (fun b => b < 256) (le_bytes cnt v).
Proof.
  induction cnt as [|c IH]; intros v; cbn [le_bytes]; constructor; [|apply IH].
  change 0xff with (N.ones 8). rewrite N.land_ones. apply N.mod_lt. discriminate.
Qed.
Lemma table_image_length p : length (table_image p) = (36 + length p)%nat.
Proof.
  unfold table_image. cbv zeta. repeat rewrite app_length. rewrite le_bytes_length, repeat_length. cbn [length].
  change (N.to_nat aml_sizeofSDTHeader - 9)%nat with 27%nat. lia.
Qed.
Lemma table_image_small p : Forall (fun b => b < 256) p -> Forall (fun b => b < 256) (table_image p).
Proof.
  intros Hp. unfold table_image. cbv zeta. repeat (apply Forall_app; split).
  - repeat constructor.
  - apply le_bytes_small.
  - repeat constructor.
  - apply Forall_forall. intros x Hx. apply repeat_spec in Hx. subst x. reflexivity.
  - exact Hp.
Qed.

(** ---- the theorem ---- *)
Theorem first_table_never_panics : forall payload,
  Forall (fun b => b < 256) payload -> N.of_nat (length payload) <= 10000 ->
  match parseAML ds_tree [] 1 (table_image payload) with
  | Ok (_, s') => exists g', R (p_tree s') g' /\ info_valid (p_tree s') /\ pool_ok (p_tables s') (p_tree s')
  | Panic => False
  | OutOfFuel => True
  end.
Proof.
  intros payload Hb Hlen.
  apply (parseAML_never_panics ds_tree ds_ghost [] 1 (table_image payload)).
  - exact ds_R.
  - unfold info_valid. apply (ds_all (fun i o => o_opcode o <> opFreed -> opInfo (o_infoIndex o) <> None)). intros n o Hlt Hn _.
    ds_cases n Hlt Hn o ltac:(vm_compute; discriminate).
  - ds_live.
  - apply groot_chk. vm_compute. reflexivity.
  - eexists. split; vm_compute; reflexivity.
  - unfold TM3. apply (ds_all (fun m mo => o_opcode mo = aml_pOpMethod -> mtyped3 ds_tree ds_ghost m)). intros n o Hlt Hn Hop.
    ds_cases n Hlt Hn o ltac:(vm_compute in Hop; discriminate).
  - unfold typed. apply (ds_all (fun i o => o_opcode o <> opFreed -> o_opcode o = aml_pOpIntNamePathOrMethodCall -> exists tbl sl, o_value o = Some (VBytes tbl sl))).
    intros n o Hlt Hn _ Hop. ds_cases n Hlt Hn o ltac:(vm_compute in Hop; discriminate).
  - unfold pool_ok. rewrite Forall_forall. intros o Hin. destruct (In_nth_error _ _ Hin) as (n & Hn).
    assert (Hlt : (n < 6)%nat).
    { assert (Hl : length (t_pool ds_tree) = 6%nat) by (vm_compute; reflexivity). rewrite <- Hl. apply nth_error_Some. rewrite Hn. discriminate. }
    ds_cases n Hlt Hn o ltac:(exact I).
  - apply (ds_all (fun i o => o_tableHandle o <> 1)). intros n o Hlt Hn. ds_cases n Hlt Hn o ltac:(vm_compute; discriminate).
  - split; [apply table_image_small; exact Hb|]. rewrite table_image_length. assert (E2 : two32 = 4294967296) by reflexivity. rewrite E2. lia.
  - cbv zeta. rewrite table_image_length. assert (Hl : length (t_pool ds_tree) = 6%nat) by (vm_compute; reflexivity). rewrite Hl.
    assert (EI : InvalidIndex = 0xffffffff) by reflexivity. rewrite EI. nia.
Qed.

(** the same about the model's entry point [load]: the outcome class of loading one table is never 2 (panic) *)
Theorem load_first_table_never_panics : forall payload,
  Forall (fun b => b < 256) payload -> N.of_nat (length payload) <= 10000 ->
  fst (fst (load [payload])) <> 2.
Proof.
  intros payload Hb Hlen. pose proof (first_table_never_panics payload Hb Hlen) as H.
  unfold load. rewrite ds_create. cbn [load_tables].
  destruct (parseAML ds_tree [] 1 (table_image payload)) as [[[|] s]| |]; cbn [fst]; try discriminate. contradiction.
Qed.

(** ---- a sequence of tables ---- *)
(** [INV]: the invariant of the load loop - the hypotheses of parseAML_never_panics about the pool, with "every handle in the pool is
    below the next handle" *)
Definition INV (tree : T) (g : ghost) (earlier : list (list N)) (h : N) : Prop :=
  R tree g /\ info_valid tree /\ glive g 0 /\ groot g 0 /\
  (exists o, tget tree 0 = Some o /\ o_opcode o = aml_pOpIntScopeBlock) /\
  TM3 tree g /\ typed tree /\ pool_ok earlier tree /\
  (forall i o, tget tree i = Some o -> o_tableHandle o < h).

(** the size hypothesis: the image and the quadratic memory bound over the pool at that moment *)
Definition fits (tree : T) (data : list N) : Prop :=
  image_small data /\
  (let L := N.of_nat (length (t_pool tree)) + 4 * N.of_nat (length data) + 2 in
   L + L * (8 * N.of_nat (length data) + 3) + 4 <= InvalidIndex).

(** a successful ParseAML re-establishes [INV] for the next handle *)
Theorem parseAML_keeps_INV : forall tree g earlier h data s,
  INV tree g earlier h -> fits tree data -> parseAML tree earlier h data = Ok (true, s) ->
  exists g', INV (p_tree s) g' (earlier ++ [data]) (h + 1).
Proof.
  intros tree g earlier h data s (HR & Hi & H0 & Hr0 & Hsb & HTM & Hty & Hpool & Hh) (Him & Hcap) E.
  assert (Hfresh : forall i o, tget tree i = Some o -> o_tableHandle o <> h) by (intros i o Ho E'; specialize (Hh i o Ho); lia).
  pose proof (parseAML_body_post3 tree g earlier h data (parse_fuel (length data + length (t_pool tree)))
                HR Hi H0 Hr0 Hsb HTM Hty Hpool Hfresh Him Hcap) as W.
  unfold parseAML in E. rewrite E in W. destruct W as (g' & HR' & Hi' & _ & Hb). destruct (Hb eq_refl) as (B0 & B1 & B2 & B3 & B4).
  assert (Him' : image_ok data) by (destruct Him as (Hb' & Hl); split; [exact Hb'|unfold two32 in *; lia]).
  destruct (parseAML_inv tree earlier h data true s Him' Hpool E) as (Hp' & _).
  exists g'. split; [exact HR'|]. split; [exact Hi'|]. split; [exact B0|]. split; [exact B1|]. split; [exact B3|].
  split; [exact B4|]. split; [exact B2|]. split; [exact Hp'|].
  intros i o Ho. assert (Hle : o_tableHandle o <= h); [|lia].
  apply (parseAML_handles tree earlier h data true s (fun j oj Hj => N.lt_le_incl _ _ (Hh j oj Hj)) E i o Ho).
Qed.

(** the sizes only: [fits] at each step (over the pool the previous tables left) *)
Fixpoint SEQ (tree : T) (earlier : list (list N)) (h : N) (payloads : list (list N)) : Prop :=
  match payloads with
  | [] => True
  | p :: rest =>
      let data := table_image p in
      fits tree data /\
      forall s, parseAML tree earlier h data = Ok (true, s) -> SEQ (p_tree s) (earlier ++ [data]) (h + 1) rest
  end.

Theorem load_tables_never_panics : forall payloads tree g earlier h,
  INV tree g earlier h -> SEQ tree earlier h payloads -> fst (fst (load_tables tree earlier h payloads)) <> 2.
Proof.
  induction payloads as [|p rest IH]; intros tree g earlier h HI HS; cbn [load_tables]; [cbn; discriminate|].
  cbn [SEQ] in HS. cbv zeta in HS. destruct HS as (Hfit & Hnext).
  pose proof HI as (HR & Hi & H0 & Hr0 & Hsb & HTM & Hty & Hpool & Hh). pose proof Hfit as (Him & Hcap).
  assert (Hfresh : forall i o, tget tree i = Some o -> o_tableHandle o <> h) by (intros i o Ho E; specialize (Hh i o Ho); lia).
  pose proof (parseAML_never_panics tree g earlier h (table_image p) HR Hi H0 Hr0 Hsb HTM Hty Hpool Hfresh Him Hcap) as W.
  cbv zeta. destruct (parseAML tree earlier h (table_image p)) as [[[|] s]| |] eqn:E; cbn [fst]; try discriminate; [|contradiction].
  destruct (parseAML_keeps_INV tree g earlier h (table_image p) s HI Hfit E) as (g' & HI').
  apply (IH (p_tree s) g' (earlier ++ [table_image p]) (h + 1) HI' (Hnext s eq_refl)).
Qed.

Lemma ds_INV : INV ds_tree ds_ghost [] 1.
Proof.
  split; [exact ds_R|].
  split; [unfold info_valid; apply (ds_all (fun i o => o_opcode o <> opFreed -> opInfo (o_infoIndex o) <> None)); intros n o Hlt Hn _;
          ds_cases n Hlt Hn o ltac:(vm_compute; discriminate)|].
  split; [ds_live|]. split; [apply groot_chk; vm_compute; reflexivity|]. split; [eexists; split; vm_compute; reflexivity|].
  split; [unfold TM3; apply (ds_all (fun m mo => o_opcode mo = aml_pOpMethod -> mtyped3 ds_tree ds_ghost m)); intros n o Hlt Hn Hop;
          ds_cases n Hlt Hn o ltac:(vm_compute in Hop; discriminate)|].
  split; [unfold typed; apply (ds_all (fun i o => o_opcode o <> opFreed -> o_opcode o = aml_pOpIntNamePathOrMethodCall -> exists tbl sl, o_value o = Some (VBytes tbl sl)));
          intros n o Hlt Hn _ Hop; ds_cases n Hlt Hn o ltac:(vm_compute in Hop; discriminate)|].
  split.
  { unfold pool_ok. rewrite Forall_forall. intros o Hin. destruct (In_nth_error _ _ Hin) as (n & Hn).
    assert (Hlt : (n < 6)%nat).
    { assert (Hl : length (t_pool ds_tree) = 6%nat) by (vm_compute; reflexivity). rewrite <- Hl. apply nth_error_Some. rewrite Hn. discriminate. }
    ds_cases n Hlt Hn o ltac:(exact I). }
  apply (ds_all (fun i o => o_tableHandle o < 1)). intros n o Hlt Hn. ds_cases n Hlt Hn o ltac:(vm_compute; reflexivity).
Qed.

(** [load]: ANY NUMBER of tables over the default scopes *)
Theorem load_never_panics : forall payloads,
  SEQ ds_tree [] 1 payloads -> fst (fst (load payloads)) <> 2.
Proof.
  intros payloads HS. unfold load. rewrite ds_create. exact (load_tables_never_panics payloads ds_tree ds_ghost [] 1 ds_INV HS).
Qed.
