(** The stream-reader layer of the AML model (Aml/Stream.v, hand-written) against the Gallina translation of
    kernel/device/acpi/aml/stream_reader.go that gen/gotrans regenerates from the source on every run
    (Gen/Trans_aml_reader.v): the map from a model reader to the translation's record, what the translation relies
    on, and the uint32 arithmetic of the offset (decrement, and increment with wrap-around followed by decrement).
    The tie itself, method by method, is Props/C12_reader_trans.v. *)
From Coq Require Import NArith Lia List Bool String.
From Coq Require Import ZifyBool ZifyN ZifyNat.
From FF Require Import Lib.Word Lib.GoOps Lib.GoOpsExt Gen.Trans_aml_reader Aml.Stream.
Import ListNotations.
Local Open Scope N_scope.

Definition to_go (r : reader) : go_aml_amlStreamReader :=
  mk_go_aml_amlStreamReader (r_offset r) (r_data r) (r_pkgEnd r).

(** what the translation relies on: the cached length is the length and fits the uint32 conversion *)
Definition len_ok (r : reader) : Prop := r_len r = N.of_nat (List.length (r_data r)) /\ r_len r < two32.

Definition err (ok : bool) (tag : string) : option string := if ok then None else Some tag.

Lemma gw32_small x : x < two32 -> gw 32 x = x.
Proof. apply (gw_small 32). Qed.

Lemma gw32_w32 x : gw 32 x = w32 x.
Proof. reflexivity. Qed.

Lemma gsub32_pred o : 0 < o -> o < two32 -> gsub 32 o 1 = o - 1.
Proof. intros H0 H. apply (gsub_small 32); [lia|exact H]. Qed.

Lemma gsub32_succ o : o < two32 -> gsub 32 (gw 32 (o + 1)) 1 = o.
Proof.
  intros H. unfold gsub, gw. change (2 ^ 32) with two32. rewrite (N.mod_small 1) by (unfold two32; lia).
  destruct (N.eq_dec (o + 1) two32) as [E|E].
  - rewrite E, N.mod_same by (unfold two32; lia). replace (0 + two32 - 1) with o by lia. apply N.mod_small. exact H.
  - rewrite (N.mod_small (o + 1)) by lia. replace (o + 1 + two32 - 1) with (o + 1 * two32) by lia.
    rewrite N.mod_add by (unfold two32; lia). apply N.mod_small. exact H.
Qed.

Lemma glen_len r : len_ok r -> gw 32 (glen (r_data r)) = r_len r.
Proof. intros [H1 H2]. unfold glen. rewrite <- H1. apply gw32_small. exact H2. Qed.

Theorem eof_is_translation r : go_aml_amlStreamReader_EOF (to_go r) = Some (to_go r, eof r).
Proof. reflexivity. Qed.
