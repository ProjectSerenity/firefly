(** The first two passes of ParseAML together - parseObjectList, then connectNamedObjArgs from the
    root - never panic and leave a pool that satisfies C13's tree relation, with valid opcode-table indexes and
    every []byte inside its table. *)
From Coq Require Import NArith Arith List Bool Lia.
From Coq Require Import ZifyBool ZifyN ZifyNat.
From FF Require Import Lib.Word Gen.Consts_device_acpi_aml Gen.Consts_aml_tree Aml.Stream Aml.Lex Aml.LexProofs
  Aml.Tree Aml.Parser Aml.ParserProofs Aml.TreeSpec Aml.TreeProofs Aml.TreeProofsOps
  Aml.ParserTotalTree Aml.ParserTotalTree2 Aml.ParserTotalLex Aml.ParserTotalTable Aml.ParserTotalBase Aml.ParserTotalLeaf
  Aml.ParserTotalFirst Aml.ParserTotalConn Aml.ParserTotalConn2.
Import ListNotations.
Local Open Scope N_scope.

(** the prefix of parseAML_body up to and including connectNamedObjArgs *)
Definition passes12 (fuel : nat) : M pres :=
  scopeEnter 0 ;;;
  mlet r1 <~ parseObjectList fuel ;;
  if pres_eqb r1 RFailed then ret RFailed else connectNamedObjArgs fuel 0.

Theorem passes12_never_panic : forall tree g earlier handle data fuel,
  R tree g -> info_valid tree -> glive g 0 -> pool_ok earlier tree ->
  Forall (fun b => b < 256) data -> N.of_nat (length data) + 0x10000400 <= two32 ->
  N.of_nat (length (t_pool tree)) + 4 * N.of_nat (length data) + 4 <= InvalidIndex ->
  match passes12 fuel (init_state tree earlier handle data) with
  | Ok (_, s') => exists g', R (p_tree s') g' /\ info_valid (p_tree s') /\ pool_ok (earlier ++ [data]) (p_tree s')
  | Panic => False
  | OutOfFuel => True
  end.
Proof.
  intros tree g earlier handle data fuel HR Hi H0 Hpool Hb Hl Hcap.
  destruct (init_FI tree g earlier handle data HR Hi H0 (conj Hb Hl) Hcap) as (HFI & Hroom & HJ & _).
  set (s0 := with_scopeStack (init_state tree earlier handle data) [0]) in *.
  assert (Hinv0 : Inv (earlier ++ [data]) s0).
  { assert (Him : image_ok data) by (split; [exact Hb|unfold two32 in *; lia]).
    destruct (init_state_Inv tree earlier handle data Him Hpool) as [A1 A2 A3 A4 A5]. constructor; auto. }
  pose proof (list_spec fuel s0 g HFI Hroom HJ) as W. unfold wp in W.
  unfold passes12, bindM, scopeEnter.
  change (with_scopeStack (init_state tree earlier handle data) (0 :: p_scopeStack (init_state tree earlier handle data))) with s0.
  destruct (parseObjectList fuel s0) as [[r1 s1]| |] eqn:E1; auto.
  destruct W as (g1 & F1 & G1).
  destruct (hoare_parseObjectList (earlier ++ [data]) fuel s0 r1 s1 Hinv0 E1) as ([B1 B2 B3 B4 B5] & _).
  destruct (pres_eqb r1 RFailed).
  - unfold ret. exists g1. split; [apply (fi_R _ _ F1)|]. split; [apply (fi_info _ _ F1)|exact B5].
  - pose proof (connectNamedObjArgs_never_panics fuel 0 s1 g1 (fi_R _ _ F1) (fi_info _ _ F1)) as C.
    rewrite B1 in C. specialize (C B5 (ge_live _ _ G1 _ H0)).
    destruct (connectNamedObjArgs fuel 0 s1) as [[r2 s2]| |] eqn:E2; auto.
    destruct C as (g2 & C1 & C2 & C3). exists g2. split; auto. split; auto.
    destruct (hoare_connectNamed (earlier ++ [data]) fuel) as (Hc & _).
    destruct (Hc 0 s1 r2 s2 (mkInv _ _ B1 B2 B3 B4 B5) E2) as ([D1 _ _ _ D5] & _). exact D5.
Qed.

(** the hypotheses are satisfiable: the pool that holds just a root scope *)
Lemma passes12_hyps_example :
  exists (tree : T) (g : ghost),
    R tree g /\ info_valid tree /\ glive g 0 /\ pool_ok [] tree /\ (length (t_pool tree) <= 1)%nat.
Proof.
  assert (Hnk : newok opScope) by (apply newokb_sound; reflexivity).
  destruct Hnk as (Hnf & Hmaps & i0 & Hi0 & Hinfo).
  destruct (newObject_R (@NewObjectTree value) ghost0 opScope 0 R_empty) as (t' & p & E & HR' & _ & Hp).
  { split; auto. split; auto. intros _. cbn. pose proof Inv_val. lia. }
  destruct (newObject_shape _ _ _ _ _ E) as ((po & Hpo & Hop & Hidx & _ & Hval) & _ & Hbw & Hl1 & _).
  destruct (new_slot_fresh (@NewObjectTree value) ghost0 opScope 0 R_empty) as (_ & F2 & _).
  cbn [g_free ghost0] in Hp. cbn [NewObjectTree t_pool length] in Hp, Hl1. change (N.of_nat 0) with 0 in Hp. subst p.
  assert (Hall : forall i o, tget t' i = Some o -> i = 0 /\ o = po).
  { intros i o Hg. destruct (N.eqb_spec i 0) as [->|Hne]; [split; congruence|].
    specialize (Hbw i o Hne Hg). unfold TreeSpec.get in Hbw. cbn [NewObjectTree t_pool] in Hbw. destruct (N.to_nat i); discriminate. }
  exists t', (astep ghost0 (OpNew opScope 0)). split; [exact HR'|]. split; [|split; [exact F2|split; [|exact Hl1]]].
  - intros i o Hg Hl. destruct (Hall i o Hg) as (-> & ->). rewrite pOpcodeTableIndex_eq, Hi0 in Hidx. inversion Hidx as [Hii].
    rewrite <- Hii. exact Hinfo.
  - unfold pool_ok. rewrite Forall_forall. intros o Hin. destruct (In_nth_error _ _ Hin) as (n & Hn).
    assert (Hg : tget t' (N.of_nat n) = Some o) by (unfold TreeSpec.get; rewrite Nat2N.id; exact Hn).
    destruct (Hall _ _ Hg) as (_ & ->). rewrite Hval. exact I.
Qed.
