(** The logic used to prove that ParseAML never panics: [wp] serves every pass; the invariant and the measures are those of
    the first pass and, with the mode as a parameter ([FIm]), of the deferred pass.

    [wp P m s Q]: running [m] from [s] does not panic; when it returns, [Q] holds of the result and
    the final state; it may run out of fuel only when [P] holds.

    [FI s g]: the invariant of the first pass - the pool represents the forest [g] (C13's relation
    [R]), every live object carries an opcode-table index inside pOpcodeTable, the reader invariant
    holds, the parser skips deferred blocks (parseModeSkipAmbiguousBlocks), and the scope stack
    holds live objects.

    [Ext s0 g0 s g]: what every first-pass function guarantees about the state it returns relative
    to the state it was called in (the forest only grows, see [gext]; the read offset does not move
    backwards; the scope stack and the pkgEnd stack are only pushed to, with at least one consumed byte
    per push of a pkgEnd).

    [Phi s]: pool size + 4 * bytes left.  The first pass pays for every object it creates with a
    byte it consumes, which bounds the pool size (no wrap of the uint32 object index). *)
From Coq Require Import NArith Arith List Bool Lia.
From Coq Require Import ZifyBool ZifyN ZifyNat.
From FF Require Import Lib.Word Gen.Consts_device_acpi_aml Gen.Consts_aml_tree Aml.Stream Aml.Lex Aml.LexProofs
  Aml.Tree Aml.TreeSpec Aml.TreeProofs Aml.TreeProofsOps Aml.Parser
  Aml.ParserTotalTree Aml.ParserTotalLex Aml.ParserTotalTable.
Import ListNotations.
Local Open Scope N_scope.

Notation tget := TreeSpec.get.

(** ---- weakest preconditions ---- *)
Definition wp {A} (P : Prop) (m : M A) (s : pstate) (Q : A -> pstate -> Prop) : Prop :=
  match m s with Ok (a, s') => Q a s' | Panic => False | OutOfFuel => P end.

Lemma wp_bind {A B} P (m : M A) (f : A -> M B) s Q :
  wp P m s (fun a s1 => wp P (f a) s1 Q) -> wp P (bindM m f) s Q.
Proof. unfold wp, bindM. destruct (m s) as [[a s1]| |]; auto. Qed.

Lemma wp_ret {A} P (a : A) s (Q : A -> pstate -> Prop) : Q a s -> wp P (ret a) s Q.
Proof. intros H. exact H. Qed.

Lemma wp_weaken {A} (P P' : Prop) (m : M A) s (Q Q' : A -> pstate -> Prop) :
  wp P' m s Q' -> (P' -> P) -> (forall a s', Q' a s' -> Q a s') -> wp P m s Q.
Proof. unfold wp. destruct (m s) as [[a s1]| |]; auto. Qed.

Lemma wp_get {A} P (f : pstate -> A) s (Q : A -> pstate -> Prop) : Q (f s) s -> wp P (get f) s Q.
Proof. intros H. exact H. Qed.

Lemma wp_outOfFuel {A} (P : Prop) s (Q : A -> pstate -> Prop) : P -> wp P outOfFuel s Q.
Proof. intros H. exact H. Qed.

(** ---- the measures ---- *)
Definition lp (s : pstate) : N := N.of_nat (length (t_pool (p_tree s))).
Definition rem (s : pstate) : N := r_len (p_r s) - r_offset (p_r s).
Definition Phi (s : pstate) : N := lp s + 4 * rem s.

(** ---- the invariant ---- *)
Definition info_valid (t : T) : Prop :=
  forall i o, tget t i = Some o -> o_opcode o <> opFreed -> opInfo (o_infoIndex o) <> None.

Record FIm (md : bool) (s : pstate) (g : ghost) : Prop := mkFIm {
  fi_R : R (p_tree s) g;
  fi_info : info_valid (p_tree s);
  fi_rok : rok (p_r s);
  fi_skip : p_allBlocks s = md;
  fi_scopes : Forall (glive g) (p_scopeStack s)
}.
Arguments fi_R {md} s g _.
Arguments fi_info {md} s g _.
Arguments fi_rok {md} s g _.
Arguments fi_skip {md} s g _.
Arguments fi_scopes {md} s g _.
(** [FI]: the invariant in the mode of the first pass (parseModeSkipAmbiguousBlocks) *)
Notation FI := (FIm false).

Record Ext (s0 : pstate) (g0 : ghost) (s : pstate) (g : ghost) : Prop := mkExt {
  ex_g : gext g0 g;
  ex_len : r_len (p_r s) = r_len (p_r s0);
  ex_off : r_offset (p_r s0) <= r_offset (p_r s);
  ex_scopes : exists extra, p_scopeStack s = extra ++ p_scopeStack s0;
  ex_pk : (length (p_pkgEndStack s0) <= length (p_pkgEndStack s))%nat;
  ex_paid : N.of_nat (length (p_pkgEndStack s)) + r_offset (p_r s0) <= N.of_nat (length (p_pkgEndStack s0)) + r_offset (p_r s)
}.

Lemma Ext_refl s g : Ext s g s g.
Proof. constructor; [apply gext_refl|reflexivity|lia|exists []; reflexivity|lia|lia]. Qed.

Lemma Ext_trans s0 g0 s1 g1 s2 g2 : Ext s0 g0 s1 g1 -> Ext s1 g1 s2 g2 -> Ext s0 g0 s2 g2.
Proof.
  intros [A1 A2 A3 (e1 & A4) A5 A6] [B1 B2 B3 (e2 & B4) B5 B6]. constructor; [eapply gext_trans; eauto|congruence|lia| |lia|lia].
  exists (e2 ++ e1). rewrite B4, A4. apply app_assoc.
Qed.

(** ---- the invariant and the components of the state ---- *)
Lemma FI_with_r {md} s g r1 : FIm md s g -> rok r1 -> FIm md (with_r s r1) g.
Proof. intros [A B C D E] H. constructor; auto. Qed.

Lemma FI_with_scope {md} s g l : FIm md s g -> Forall (glive g) l -> FIm md (with_scopeStack s l) g.
Proof. intros [A B C D E] H. constructor; auto. Qed.

Lemma FI_with_pkgEnd {md} s g l : FIm md s g -> FIm md (with_pkgEndStack s l) g.
Proof. intros [A B C D E]. constructor; auto. Qed.

Lemma FI_with_tree {md} s g t' g' :
  FIm md s g -> R t' g' -> info_valid t' -> (forall x, glive g x -> glive g' x) -> FIm md (with_tree s t') g'.
Proof.
  intros [A B C D E] HR Hi Hl. constructor; auto. cbn [p_scopeStack with_tree].
  eapply Forall_impl; [|exact E]. exact Hl.
Qed.

Lemma FI_live_get {md} s g p : FIm md s g -> glive g p -> exists o, tget (p_tree s) p = Some o /\ o_opcode o <> opFreed.
Proof. intros H Hl. apply (R_live_glive _ _ (fi_R _ _ H)) in Hl. exact Hl. Qed.

Lemma FI_ObjectAt {md} s g p : FIm md s g -> glive g p -> ObjectAt (p_tree s) p = Some p.
Proof.
  intros H Hl. destruct (FI_live_get _ _ _ H Hl) as (o & Hg & Ho).
  eapply ObjectAt_live; eauto. apply (R_bound _ _ (fi_R _ _ H)).
Qed.

Lemma info_valid_pframe (t t' : T) : info_valid t -> pframe t t' -> info_valid t'.
Proof.
  intros Hi Hp i o' Hg Hl. destruct (pframe_inv _ _ _ _ Hp Hg) as (o & Ho & E1 & E2 & _).
  rewrite E2. apply (Hi _ _ Ho). congruence.
Qed.

Lemma info_valid_tset (t : T) p f :
  info_valid t ->
  (forall o, tget t p = Some o -> o_opcode o <> opFreed -> opInfo (o_infoIndex (f o)) <> None) ->
  (forall o, tget t p = Some o -> (o_opcode (f o) = opFreed <-> o_opcode o = opFreed)) ->
  info_valid (tset t p f).
Proof.
  intros Hi Hf Hop i o' Hg Hl. rewrite get_tset in Hg. destruct (N.eqb_spec i p) as [->|Hne].
  - destruct (tget t p) as [o|] eqn:E; cbn [option_map] in Hg; [|discriminate]. inversion Hg; subst o'.
    apply (Hf o); auto. intros Hfr. apply Hl. apply (Hop o); auto.
  - eapply Hi; eauto.
Qed.

Lemma FI_tset {md} s g p f :
  FIm md s g ->
  (forall o, tget (p_tree s) p = Some o -> lk_eq o (f o)) ->
  (forall o, tget (p_tree s) p = Some o -> o_opcode o <> opFreed -> opInfo (o_infoIndex (f o)) <> None) ->
  FIm md (with_tree s (tset (p_tree s) p f)) g.
Proof.
  intros H Hlk Hinf. apply FI_with_tree with (g := g); auto.
  - apply R_tset_lk; [apply (fi_R _ _ H)|exact Hlk].
  - apply info_valid_tset; [apply (fi_info _ _ H)|exact Hinf|].
    intros o Ho. destruct (Hlk o Ho) as (E & _). exact E.
Qed.

(** ---- primitive steps ---- *)
Lemma wp_lex {A} P (f : reader -> outcome (A * bool * reader)) s (Q : A * bool -> pstate -> Prop) :
  (exists a ok r1, f (p_r s) = Ok (a, ok, r1) /\ Q (a, ok) (with_r s r1)) -> wp P (lex f) s Q.
Proof. intros (a & ok & r1 & E & H). unfold wp, lex. rewrite E. exact H. Qed.

Lemma wp_pkglen P s (Q : N * bool -> pstate -> Prop) : rok (p_r s) ->
  (forall v ok r1, adv (p_r s) r1 -> (ok = true -> r_offset (p_r s) < r_offset r1 /\ v < 0x10000000) ->
                   (ok = false -> r_offset r1 = r_offset (p_r s)) -> Q (v, ok) (with_r s r1)) ->
  wp P (lex parsePkgLength) s Q.
Proof.
  intros H K. destruct (parsePkgLength_off _ H) as (v & ok & r1 & E & A & K1 & K2).
  apply wp_lex. exists v, ok, r1. split; auto.
Qed.

Lemma wp_num P k s (Q : N * bool -> pstate -> Prop) : rok (p_r s) ->
  (forall v ok r1, adv (p_r s) r1 -> (ok = true -> r_offset r1 = r_offset (p_r s) + k) -> Q (v, ok) (with_r s r1)) ->
  wp P (lex (parseNumConstant k)) s Q.
Proof.
  intros H K. destruct (parseNumConstant_off k _ H) as (v & ok & r1 & E & A & K1).
  apply wp_lex. exists v, ok, r1. split; auto.
Qed.

Lemma wp_string P s (Q : slice * bool -> pstate -> Prop) : rok (p_r s) ->
  (forall v ok r1, adv (p_r s) r1 -> (ok = true -> r_offset (p_r s) < r_offset r1) -> Q (v, ok) (with_r s r1)) ->
  wp P (lex parseString) s Q.
Proof.
  intros H K. destruct (parseString_off _ H) as (v & ok & r1 & E & A & K1).
  apply wp_lex. exists v, ok, r1. split; auto.
Qed.

Lemma wp_namestring P s (Q : slice * bool -> pstate -> Prop) : rok (p_r s) ->
  (forall v ok r1, adv (p_r s) r1 -> (ok = true -> r_offset (p_r s) < r_offset r1) -> Q (v, ok) (with_r s r1)) ->
  wp P (lex parseNameString) s Q.
Proof.
  intros H K. destruct (parseNameString_off _ H) as (v & ok & r1 & E & A & K1).
  apply wp_lex. exists v, ok, r1. split; auto.
Qed.

Lemma wp_nextop P s (Q : N * bool -> pstate -> Prop) : rok (p_r s) ->
  (forall op ok r1, adv (p_r s) r1 ->
     (ok = true -> r_offset (p_r s) < r_offset r1 /\ op <= 0x1fe /\
                   exists idx, opcodeTableIndex op false = Some idx /\ idx <> aml_badOpcode) ->
     (ok = false -> r_offset r1 = r_offset (p_r s) /\ op = 0xffff) -> Q (op, ok) (with_r s r1)) ->
  wp P (lex nextOpcode) s Q.
Proof.
  intros H K. destruct (nextOpcode_off _ H) as (v & ok & r1 & E & A & K1 & K2).
  apply wp_lex. exists v, ok, r1. split; auto.
Qed.

Lemma wp_readByte P s (Q : option N -> pstate -> Prop) : rok (p_r s) ->
  (forall b r1, adv (p_r s) r1 ->
     (b = None -> r_offset r1 = r_offset (p_r s) /\ r_pkgEnd (p_r s) <= r_offset (p_r s)) ->
     (forall x, b = Some x -> r_offset r1 = r_offset (p_r s) + 1 /\ x < 256 /\ r_offset (p_r s) < r_pkgEnd (p_r s)) ->
     Q b (with_r s r1)) ->
  wp P readByteM s Q.
Proof.
  intros H K. unfold wp, readByteM.
  destruct (rd1 _ H) as [(E & Hge)|(b & E & Lt & Hb & A)]; rewrite E.
  - apply K; [apply adv_refl; auto|auto|discriminate].
  - apply K; [exact A|discriminate|]. intros x Hx. inversion Hx; subst. cbn. auto.
Qed.

Lemma wp_ru P f s (Q : unit -> pstate -> Prop) : Q tt (with_r s (f (p_r s))) -> wp P (ru f) s Q.
Proof. intros H. exact H. Qed.

Lemma wp_setPkgEnd P e s (Q : bool -> pstate -> Prop) :
  Q (snd (setPkgEnd (p_r s) e)) (with_r s (fst (setPkgEnd (p_r s) e))) -> wp P (setPkgEndM e) s Q.
Proof. unfold wp, setPkgEndM. destruct (setPkgEnd (p_r s) e) as [r ok]. auto. Qed.

Lemma rok_setPkgEnd r e : rok r -> rok (fst (setPkgEnd r e)).
Proof.
  intros ((W1 & W2 & W3 & W4) & S & O). unfold setPkgEnd. destruct (r_len r <? e) eqn:E; cbn [fst].
  - split; [repeat split; auto|auto].
  - apply N.ltb_ge in E. split; [repeat split; auto|auto].
Qed.

Lemma setPkgEnd_off r e : r_offset (fst (setPkgEnd r e)) = r_offset r /\ r_len (fst (setPkgEnd r e)) = r_len r.
Proof. unfold setPkgEnd. destruct (r_len r <? e); auto. Qed.

Lemma rok_setOffset r o : rok r -> rok (setOffset r o) /\ r_len (setOffset r o) = r_len r.
Proof.
  intros (W & S & O). split; auto. split; [eapply wf_same_window; [exact W|apply same_window_setOffset]|].
  split; [exact S|]. unfold setOffset. cbn. destruct (r_len r <? o) eqn:E; [lia|]. apply N.ltb_ge in E. exact E.
Qed.

Lemma wp_rdf P p (f : Obj -> N) s (Q : N -> pstate -> Prop) :
  (exists o, tget (p_tree s) p = Some o /\ Q (f o) s) -> wp P (rdf p f) s Q.
Proof. intros (o & Hg & H). unfold wp, rdf, tq. rewrite (rd_ok _ _ _ _ Hg). exact H. Qed.

Lemma wp_tq {A} P (f : T -> outcome A) a s (Q : A -> pstate -> Prop) : f (p_tree s) = Ok a -> Q a s -> wp P (tq f) s Q.
Proof. intros E H. unfold wp, tq. rewrite E. exact H. Qed.

Lemma wp_rdo P p s (Q : Obj -> pstate -> Prop) :
  (exists o, tget (p_tree s) p = Some o /\ Q o s) -> wp P (rdo p) s Q.
Proof. intros (o & Hg & H). unfold wp, rdo, tq. rewrite deref_get, Hg. exact H. Qed.

Lemma wp_wrf P p f s (Q : unit -> pstate -> Prop) :
  (exists o, tget (p_tree s) p = Some o) -> Q tt (with_tree s (tset (p_tree s) p f)) -> wp P (wrf p f) s Q.
Proof. intros (o & Hg) H. unfold wp, wrf, tu. rewrite (wr_ok _ _ _ _ Hg). exact H. Qed.

Lemma wp_tu P f s (Q : unit -> pstate -> Prop) :
  (exists t', f (p_tree s) = Ok t' /\ Q tt (with_tree s t')) -> wp P (tu f) s Q.
Proof. intros (t' & E & H). unfold wp, tu. rewrite E. exact H. Qed.

Lemma wp_appendM P o a s (Q : unit -> pstate -> Prop) :
  (exists t', append (p_tree s) o a = Ok t' /\ Q tt (with_tree s t')) -> wp P (appendM (Some o) a) s Q.
Proof. intros H. unfold appendM. apply wp_bind. cbn [need]. apply wp_ret. apply wp_tu. exact H. Qed.

Lemma wp_detachM P o a s (Q : unit -> pstate -> Prop) :
  (exists t', detach (p_tree s) o a = Ok t' /\ Q tt (with_tree s t')) -> wp P (detachM (Some o) (Some a)) s Q.
Proof. intros H. unfold detachM. apply wp_bind. cbn [need]. apply wp_ret. apply wp_bind. apply wp_ret. apply wp_tu. exact H. Qed.

Lemma wp_bytesOf P tbl sl l s (Q : list N -> pstate -> Prop) :
  slice_bytes s tbl sl = Ok l -> Q l s -> wp P (bytesOf tbl sl) s Q.
Proof. intros E H. unfold wp, bytesOf. rewrite E. exact H. Qed.

Lemma wp_objectAt' P i s (Q : N -> pstate -> Prop) :
  ObjectAt (p_tree s) i = Some i -> Q i s -> wp P (objectAt' i) s Q.
Proof. intros E H. unfold objectAt'. apply wp_bind. apply wp_get. rewrite E. cbn [need]. apply wp_ret. exact H. Qed.

Lemma wp_scopeCurrent P s top rest (Q : option N -> pstate -> Prop) :
  p_scopeStack s = top :: rest -> Q (ObjectAt (p_tree s) top) s -> wp P scopeCurrent s Q.
Proof. intros E H. unfold scopeCurrent. apply wp_bind. apply wp_get. rewrite E. apply wp_get. exact H. Qed.

Lemma wp_tableIndex P op b i s (Q : N -> pstate -> Prop) :
  opcodeTableIndex op b = Some i -> Q i s -> wp P (tableIndex op b) s Q.
Proof. intros E H. unfold tableIndex. rewrite E. exact H. Qed.

Lemma wp_info P ii row s (Q : N * N * N -> pstate -> Prop) : opInfo ii = Some row -> Q row s -> wp P (info ii) s Q.
Proof. intros E H. unfold info. rewrite E. exact H. Qed.

Lemma wp_lift {A} P (o : outcome A) a s (Q : A -> pstate -> Prop) : o = Ok a -> Q a s -> wp P (lift o) s Q.
Proof. intros -> H. exact H. Qed.

Lemma wp_scopeEnter P i s (Q : unit -> pstate -> Prop) :
  Q tt (with_scopeStack s (i :: p_scopeStack s)) -> wp P (scopeEnter i) s Q.
Proof. intros H. exact H. Qed.

(** ---- steps on the tree, with the invariant ---- *)
Lemma new_step {md} P opc s g (Q : N -> pstate -> Prop) :
  FIm md s g -> newok opc -> lp s + 1 < InvalidIndex ->
  (forall p t' g' po,
     FIm md (with_tree s t') g' -> gext g g' -> ~ glive g p -> glive g' p -> groot g' p -> kids g' p = [] ->
     tget t' p = Some po -> o_opcode po = opc -> o_value po = None ->
     opcodeTableIndex opc true = Some (o_infoIndex po) ->
     (length (t_pool t') <= S (length (t_pool (p_tree s))))%nat ->
     (length (t_pool (p_tree s)) <= length (t_pool t'))%nat ->
     Q p (with_tree s t')) ->
  wp P (newObj opc) s Q.
Proof.
  intros H (Hnf & Hmaps & i0 & Hi0 & Hinfo) Hroom K.
  pose proof (fi_R _ _ H) as HR.
  destruct (newObject_R (p_tree s) g opc (p_handle s) HR) as (t' & p & E & HR' & _ & Hp).
  { split; auto. split; auto. intros _. rewrite (R_len _ _ HR). unfold lp in Hroom. lia. }
  destruct (newObject_shape _ _ _ _ _ E) as ((po & Hpo & Hop & Hidx & _ & Hval) & Hfw & Hbw & Hl1 & Hl2).
  destruct (new_slot_fresh (p_tree s) g opc (p_handle s) HR) as (F1 & F2 & F3 & F4). fold (new_slot (p_tree s) g) in Hp.
  rewrite <- Hp in F1, F2, F3, F4.
  rewrite pOpcodeTableIndex_eq, Hi0 in Hidx. inversion Hidx as [Hii].
  unfold wp, newObj. rewrite E.
  apply (K p t' (astep g (OpNew opc (p_handle s))) po); auto.
  - apply FI_with_tree with (g := g); auto.
    + intros i o Hg Hl. destruct (N.eqb_spec i p) as [->|Hne].
      * assert (o = po) by congruence. subst o. rewrite <- Hii. exact Hinfo.
      * apply (fi_info _ _ H i o); auto.
    + apply (ge_live _ _ (gext_new g opc (p_handle s))).
  - apply gext_new.
  - rewrite <- Hii. exact Hi0.
Qed.

Lemma wrf_step {md} P p f s g (Q : unit -> pstate -> Prop) :
  FIm md s g -> glive g p ->
  (forall o, o_opcode o <> opFreed -> lk_eq o (f o)) ->
  (forall o, o_opcode o <> opFreed -> opInfo (o_infoIndex o) <> None -> opInfo (o_infoIndex (f o)) <> None) ->
  (forall o, tget (p_tree s) p = Some o -> o_opcode o <> opFreed ->
             FIm md (with_tree s (tset (p_tree s) p f)) g -> Q tt (with_tree s (tset (p_tree s) p f))) ->
  wp P (wrf p f) s Q.
Proof.
  intros H Hl Hlk Hinf K. destruct (FI_live_get _ _ _ H Hl) as (o & Hg & Ho).
  apply wp_wrf; [eauto|]. apply (K o); auto. apply FI_tset; auto.
  - intros o' Hg'. assert (o' = o) by congruence. subst o'. auto.
  - intros o' Hg' Ho'. apply Hinf; auto. apply (fi_info _ _ H _ _ Hg' Ho').
Qed.

Lemma append_step {md} P o a s g g0 (Q : unit -> pstate -> Prop) :
  FIm md s g -> gwf g0 -> gext g0 g -> glive g0 o -> ~ glive g0 a -> glive g a -> groot g a ->
  (forall t', FIm md (with_tree s t') (astep g (OpAppend o a)) -> gext g0 (astep g (OpAppend o a)) ->
              pframe (p_tree s) t' -> kids (astep g (OpAppend o a)) o = kids g o ++ [a] ->
              (forall q, q <> o -> kids (astep g (OpAppend o a)) q = kids g q) ->
              Q tt (with_tree s t')) ->
  wp P (appendM (Some o) a) s Q.
Proof.
  intros H Hwf Hext Hlo Hna Hla Hroot K.
  destruct (append_full (p_tree s) g g0 o a (fi_R _ _ H) Hwf Hext Hlo Hna Hla Hroot) as (t' & E & HR' & Hpf & Hext').
  assert (Holt : o < N.of_nat (length (g_kids g))) by (apply glive_lt; eapply ge_live; eauto).
  apply wp_appendM. exists t'. split; auto. apply K; auto.
  - apply FI_with_tree with (g := g); auto.
    + eapply info_valid_pframe; [apply (fi_info _ _ H)|exact Hpf].
    + intros x Hx. cbn [astep]. apply glive_set_kids; auto.
  - cbn [astep]. rewrite kids_set_kids by auto. rewrite N.eqb_refl. reflexivity.
  - intros q Hq. cbn [astep]. rewrite kids_set_kids by auto. apply N.eqb_neq in Hq. rewrite Hq. reflexivity.
Qed.

(** what [pframe] keeps of one object *)
Lemma pframe_get (t t' : T) i o : pframe t t' -> tget t i = Some o ->
  exists o', tget t' i = Some o' /\ o_opcode o' = o_opcode o /\ o_infoIndex o' = o_infoIndex o /\ o_value o' = o_value o.
Proof.
  intros [_ H] Hg. destruct (H _ _ Hg) as (o' & Hg' & E1 & E2 & _ & _ & _ & _ & _ & E8). eauto 8.
Qed.

Lemma lp_with_tree s t' : lp (with_tree s t') = N.of_nat (length (t_pool t')).
Proof. reflexivity. Qed.
