(** parseDeferredBlocks: the nine mutually recursive functions together, and the work on ONE deferred
    object never panics; a witness state (root and a pending While). *)
From Coq Require Import NArith Arith List Bool Lia.
From Coq Require Import ZifyBool ZifyN ZifyNat.
From FF Require Import Lib.Word Gen.Consts_device_acpi_aml Gen.Consts_aml_tree Aml.Stream Aml.Lex Aml.LexProofs
  Aml.Tree Aml.Parser Aml.ParserProofs Aml.TreeSpec Aml.TreeProofs Aml.TreeProofsOps Aml.TreeProofsFind Aml.TreeProofsAnc
  Aml.ParserTotalTree Aml.ParserTotalTree2 Aml.ParserTotalLex Aml.ParserTotalTable Aml.ParserTotalBase Aml.ParserTotalLeaf
  Aml.ParserTotalFrame Aml.ParserTotalLeaf2 Aml.ParserTotalFirst Aml.ParserTotalConn Aml.ParserTotalReloc Aml.ParserTotalDefer
  Aml.ParserTotalMerge Aml.ParserTotalDeferN Aml.ParserTotalDeferX Aml.ParserTotalDeferS Aml.ParserTotalDeferA
  Aml.ParserTotalDeferG Aml.ParserTotalDeferO.
Import ListNotations.
Local Open Scope N_scope.

Section Block.
Variable tbls : list (list N).

Definition Dall (fuel : nat) : Prop :=
  D_name tbls fuel /\ D_next tbls fuel /\ D_objargs tbls fuel /\ D_args tbls fuel /\ D_arg tbls fuel /\
  D_strict tbls fuel /\ D_target tbls fuel /\ D_termlist tbls fuel /\ D_callargs tbls fuel.

Lemma Dall_all : forall fuel, Dall fuel.
Proof.
  induction fuel as [|fuel (Hn & Hx & Ho & Hg & Ha & Hs & Ht & Hl & Hc)].
  -
    unfold Dall. repeat split; intro; intros; exact I.
  - unfold Dall. split; [apply step_Dname; assumption|]. split; [apply step_Dnext; assumption|].
    split; [apply step_Dobjargs; assumption|]. split; [apply step_Dargs; assumption|].
    split; [apply step_Darg; assumption|]. split; [apply step_Dstrict; assumption|].
    split; [apply step_Dtarget; assumption|]. split; [apply step_Dtermlist; assumption|apply step_Dcallargs; assumption].
Qed.

Lemma D_objargs_all fuel : D_objargs tbls fuel.
Proof. apply (Dall_all fuel). Qed.
End Block.

(** the invariant of the walk does not care about the mode *)
Definition WI (s : pstate) (g : ghost) : Prop := FIm (p_allBlocks s) s g.

Lemma WI_FD s g : WI s g -> FIm true (with_allBlocks s true) g.
Proof. intros [A B C D E]. constructor; auto. Qed.

Lemma FD_WI s g : FIm true s g -> WI s g.
Proof. intros H. unfold WI. rewrite (fi_skip _ _ H). exact H. Qed.

Lemma popAll_spec {md} fuel : forall s g, FIm md s g ->
  wp True (popAll_go fuel) s (fun _ s' => FIm md s' g /\ p_tree s' = p_tree s /\ p_scopeStack s' = p_scopeStack s /\
                                          r_offset (p_r s') = r_offset (p_r s) /\ r_len (p_r s') = r_len (p_r s)).
Proof.
  induction fuel as [|fuel IH]; intros s g H; cbn [popAll_go]; [apply wp_outOfFuel; exact I|].
  apply wp_bind, wp_get. destruct (p_pkgEndStack s) eqn:E; [apply wp_ret; auto|].
  apply wp_bind. eapply wp_popPkgEnd; [exact H|]. intros s1 H1 E1 E2 E3 E4.
  eapply wp_weaken; [apply (IH s1 g H1)|auto|]. intros u s' (A & B & C & D & F). split; [exact A|]. repeat split; congruence.
Qed.

Lemma finsert_tree_eq s1 s2 g g' c : finsert s1 g g' c -> p_tree s2 = p_tree s1 -> finsert s2 g g' c.
Proof.
  intros F E par l1 tl Hk. destruct (F par l1 tl Hk) as (new & Hn & Hs). exists new. split; [exact Hn|].
  unfold sibs, nfrow in *. rewrite E. exact Hs.
Qed.

Definition flagged (s : pstate) (x : N) : Prop :=
  exists o op fl af, tget (p_tree s) x = Some o /\ opInfo (o_infoIndex o) = Some (op, fl, af) /\
    hasFlag fl aml_pOpFlagDeferParsing = true.

Section Walk.
Variable tbls : list (list N).
Notation IV := (Inv tbls).

(** the work on one deferred object *)
Definition block_body (parseFuel : nat) (obj : N) (oo : Obj) : M pres :=
  (fun s => Ok (tt, with_allBlocks s true)) ;;;
  mlet se <~ Parser.get p_streamEnd ;;
  setPkgEndM se ;;;
  setOffsetM (w32 (o_amlOffset oo + 1)) ;;;
  (if 0xff <? o_opcode oo then readByteM ;;; ret tt else ret tt) ;;;
  mlet res <~ parseObjectArgs parseFuel obj ;;
  if negb (pres_eqb res ROk) then ret RFailed else
  mlet n <~ Parser.get (fun s => S (length (p_pkgEndStack s))) ;;
  popAll_go n ;;;
  ret ROk.

Definition Cblock (s : pstate) : N := 8 * r_len (p_r s) + 3.

Lemma block_spec parseFuel obj oo s g :
  WI s g -> IV s -> glive g 0 -> glive g obj -> tget (p_tree s) obj = Some oo -> flagged s obj ->
  (hasfl s obj -> has_parent g obj) -> TM NoX s g ->
  lp s + 8 * r_len (p_r s) + 7 <= InvalidIndex ->
  wp True (block_body parseFuel obj oo) s (fun res s' => exists g',
    WI s' g' /\ gext g g' /\ r_len (p_r s') = r_len (p_r s) /\
    lp s' <= lp s + Cblock s /\ keep (eq obj) s g s' /\ (res = ROk -> TM NoX s' g') /\
    Fk (eq obj) (fun y => hasfl s obj /\ In obj (kids g y)) g g' /\ finsert s' g g' obj).
Proof.
  intros H I0 H0 Hl Hoo Hfl Hflp HTM Hcap. unfold block_body.
  pose proof (WI_FD _ _ H) as H1.
  wbi tbls I0. apply wp_counters. intros I1.
  set (s1 := with_allBlocks s true) in *.
  wbi tbls I1. apply wp_get. intros _.
  wbi tbls I1. apply wp_setPkgEnd. intros I2.
  set (s2 := with_r s1 (fst (setPkgEnd (p_r s1) (p_streamEnd s1)))) in *.
  assert (H2 : FD s2 g) by (apply FI_with_r; [exact H1|apply rok_setPkgEnd; apply (fi_rok _ _ H1)]).
  destruct (setPkgEnd_off (p_r s1) (p_streamEnd s1)) as (Eo2 & El2).
  wbi tbls I2. apply wp_ru. intros I3.
  set (s3 := with_r s2 (setOffset (p_r s2) (w32 (o_amlOffset oo + 1)))) in *.
  destruct (rok_setOffset (p_r s2) (w32 (o_amlOffset oo + 1)) (fi_rok _ _ H2)) as (Hrok3 & El3).
  assert (H3 : FD s3 g) by (apply FI_with_r; auto).
  assert (Hmid : forall s4, FD s4 g -> IV s4 -> p_tree s4 = p_tree s -> r_len (p_r s4) = r_len (p_r s) ->
            wp True (mlet res <~ parseObjectArgs parseFuel obj ;;
                     if negb (pres_eqb res ROk) then ret RFailed else
                     mlet n <~ Parser.get (fun s => S (length (p_pkgEndStack s))) ;; popAll_go n ;;; ret ROk) s4
              (fun res s' => exists g', WI s' g' /\ gext g g' /\ r_len (p_r s') = r_len (p_r s) /\
                 lp s' <= lp s + Cblock s /\ keep (eq obj) s g s' /\ (res = ROk -> TM NoX s' g') /\
                 Fk (eq obj) (fun y => hasfl s obj /\ In obj (kids g y)) g g' /\ finsert s' g g' obj)).
  { intros s4 H4 I4 Et4 El4.
    assert (HTM4 : TM NoX s4 g) by (eapply TM_tree_eq; eauto).
    assert (Hoo4 : tget (p_tree s4) obj = Some oo) by (rewrite Et4; exact Hoo).
    destruct Hfl as (o' & op & fl & af & Ho' & Hrow & Hdf). assert (o' = oo) by congruence. subst o'.
    wbi tbls I4. eapply wp_weaken; [apply (D_objargs_all tbls parseFuel obj s4 g H4 I4 H0 Hl)| |].
    - pose proof (fi_rok _ _ H4) as (_ & _ & O4). unfold roomD, Psi, lp, rem in *. rewrite Et4, El4. lia.
    - apply TM_NoX_any. exact HTM4.
    - intros co Hco Hop. left. apply (HTM4 obj co Hco Hop). intros [].
    - intros (co & op' & fl' & af' & Hco & Hr' & Hf). eapply Hflp. exists co, op', fl', af'. rewrite <- Et4. auto.
    - intros m mo a0 a1 rest Hm Hmop Hk E. subst a1.
      destruct (HTM4 m mo Hm Hmop (fun F => F)) as (b0 & b1 & r & b0o & b1o & v & Hk' & _ & _ & Hb1 & _ & Hn1 & _).
      rewrite Hk in Hk'. inversion Hk'; subst b0 b1 r. assert (b1o = oo) by congruence. subst b1o.
      destruct (Hn1 _ _ _ Hrow) as (F & _). rewrite Hdf in F. discriminate.
    - auto.
    - intros res s5 (g5 & H5 & X5 & F5 & Hfi5 & P5 & _ & Hok5) I5.
      assert (Hlp5 : lp s5 <= lp s + Cblock s).
      { pose proof (fi_rok _ _ H4) as (_ & _ & O4). unfold Cblock. unfold Psi, rem, lp in *. rewrite Et4, El4 in *. lia. }
      assert (Hkeep5 : keep (eq obj) s g s5).
      { intros i o Hi Ho. rewrite <- Et4 in Ho. apply (fr_keep _ _ _ _ _ _ _ F5 i o Hi Ho). }
      assert (Hfk5 : Fk (eq obj) (fun y => hasfl s obj /\ In obj (kids g y)) g g5).
      { intros y Hy HE. apply (fr_kids _ _ _ _ _ _ _ F5 y Hy).
        intros (F & Hin). apply HE. split; [|exact Hin]. unfold hasfl in *. rewrite <- Et4. exact F. }
      destruct (pres_eqb res ROk) eqn:Er; cbn [negb].
      2:{ apply wp_ret. exists g5. split; [apply FD_WI; exact H5|]. split; [apply (xd_g _ _ _ _ X5)|].
          split; [rewrite (xd_len _ _ _ _ X5); exact El4|]. split; [exact Hlp5|]. split; [exact Hkeep5|]. split; [intros E; discriminate|]. split; [exact Hfk5|exact Hfi5]. }
      assert (res = ROk) by (destruct res; try discriminate; reflexivity). subst res.
      destruct (Hok5 eq_refl) as (_ & K2 & _).
      wbi tbls I5. apply wp_get. intros _.
      apply wp_bind. eapply wp_weaken; [apply (popAll_spec _ s5 g5 H5)|auto|].
      intros u s6 (H6 & Et6 & _ & _ & El6). apply wp_ret. exists g5.
      split; [apply FD_WI; exact H6|]. split; [apply (xd_g _ _ _ _ X5)|].
      split; [rewrite El6, (xd_len _ _ _ _ X5); exact El4|].
      split; [unfold lp in *; rewrite Et6; exact Hlp5|].
      split; [intros i o Hi Ho; rewrite Et6; apply (Hkeep5 i o Hi Ho)|].
      split; [intros _; eapply TM_tree_eq; [exact K2|exact Et6]|]. split; [exact Hfk5|].
      eapply finsert_tree_eq; [exact Hfi5|exact Et6]. }
  assert (Et3 : p_tree s3 = p_tree s) by reflexivity.
  assert (El3' : r_len (p_r s3) = r_len (p_r s)).
  { unfold s3. pcbn. rewrite El3. unfold s2. pcbn. pcbn_in El2. rewrite El2. reflexivity. }
  destruct (0xff <? o_opcode oo).
  - apply (wp_bind_inv tbls _ _ _ _ _ I3); [hauto tbls|].
    apply wp_bind. apply wp_readByte; [apply (fi_rok _ _ H3)|].
    intros b r4 Hadv _ _. apply wp_ret. intros I4.
    assert (H4 : FD (with_r s3 r4) g) by (apply FI_adv; auto).
    apply (Hmid (with_r s3 r4) H4 I4); [exact Et3|].
    destruct Hadv as ((_ & E & _) & _). pcbn. rewrite E. exact El3'.
  - wbi tbls I3. apply wp_ret. intros _. apply (Hmid s3 H3 I3 Et3 El3').
Qed.
(** parseDeferredBlocks on an object whose arguments are parsed in the deferred pass *)
Theorem deferred_block_never_panics : forall fuel parseFuel obj oo op fl af s g,
  R (p_tree s) g -> info_valid (p_tree s) -> rok (p_r s) -> Forall (glive g) (p_scopeStack s) -> IV s ->
  glive g 0 -> glive g obj ->
  tget (p_tree s) obj = Some oo -> opInfo (o_infoIndex oo) = Some (op, fl, af) ->
  hasFlag fl aml_pOpFlagDeferParsing = true -> o_tableHandle oo = p_handle s ->
  (has_fl af -> has_parent g obj) -> TM NoX s g ->
  lp s + 8 * r_len (p_r s) + 7 <= InvalidIndex ->
  match parseDeferredBlocks (S fuel) parseFuel obj s with
  | Ok (res, s') => exists g', R (p_tree s') g' /\ info_valid (p_tree s') /\ rok (p_r s') /\ Forall (glive g') (p_scopeStack s') /\
      gext g g' /\ glive g' 0 /\ lp s' <= lp s + 8 * r_len (p_r s) + 3 /\ (res = ROk -> TM NoX s' g')
  | Panic => False
  | OutOfFuel => True
  end.
Proof.
  intros fuel parseFuel obj oo op fl af s g HR Hi Hrk Hsc I0 H0 Hl Hoo Hrow Hdf Hh Hflp HTM Hcap.
  assert (H : WI s g) by (constructor; auto).
  assert (W : wp True (parseDeferredBlocks (S fuel) parseFuel obj) s (fun res s' => exists g',
     WI s' g' /\ gext g g' /\ r_len (p_r s') = r_len (p_r s) /\ lp s' <= lp s + Cblock s /\ keep (eq obj) s g s' /\ (res = ROk -> TM NoX s' g') /\
     Fk (eq obj) (fun y => hasfl s obj /\ In obj (kids g y)) g g' /\ finsert s' g g' obj)).
  { cbn [parseDeferredBlocks].
    apply wp_bind. apply wp_objectAt'; [apply (FI_ObjectAt _ _ _ H Hl)|].
    apply wp_bind. apply wp_rdo. exists oo. split; [exact Hoo|].
    apply wp_bind. eapply wp_info; [exact Hrow|]. cbv beta iota.
    apply wp_bind, wp_get. rewrite Hdf, Hh, N.eqb_refl. cbn [andb].
    apply (block_spec parseFuel obj oo s g H I0 H0 Hl Hoo); auto.
    - exists oo, op, fl, af. auto.
    - intros (co & op' & fl' & af' & Hco & Hr' & Hf). apply Hflp. assert (co = oo) by congruence. subst. rewrite Hrow in Hr'. inversion Hr'; subst. exact Hf. }
  unfold wp in W. destruct (parseDeferredBlocks (S fuel) parseFuel obj s) as [[res s']| |]; auto.
  destruct W as (g' & [A B C D E] & G & L & P & _ & T & _ & _). exists g'. repeat (split; [assumption|]).
  split; [apply (ge_live _ _ G); exact H0|]. split; [unfold Cblock in P; lia|exact T].
Qed.
End Walk.

(** ---- the hypotheses are satisfiable: the root and a While object whose block While (Zero) { } has not been parsed yet ---- *)
Definition dex_ops : list op :=
  [ OpNewNamed opScopeBlock 0 (0x5c, 0, 0, 0); OpNew aml_pOpWhile 1; OpAppend 0 1 ].
Definition dex_image : list N := table_image [0xa2; 0x02; 0x00].
Definition dex_tree : T :=
  match run (@NewObjectTree value) dex_ops with
  | Ok t => tset t 1 (set_amlOffset aml_sizeofSDTHeader)
  | _ => NewObjectTree
  end.
Definition dex_ghost : ghost := arun ghost0 dex_ops.
Definition dex_state : pstate := with_scopeStack (init_state dex_tree [] 1 dex_image) [0].

Lemma dex_legal : legal_seq ghost0 dex_ops.
Proof.
  unfold dex_ops. cbn [legal_seq].
  repeat match goal with |- _ /\ _ => split end; cbn [legal]; try exact I;
  try (split; [vm_compute; discriminate | split; [first [left; vm_compute; discriminate | right; vm_compute; reflexivity] | intros _; vm_compute; reflexivity]]).
  split; [split; [vm_compute; reflexivity | vm_compute; intuition discriminate]|].
  split; [split; [vm_compute; reflexivity | vm_compute; intuition discriminate]|].
  split; [apply groot_chk; vm_compute; reflexivity|apply (not_desc_chk _ _ _ [1]); vm_compute; reflexivity].
Qed.

Lemma dex_R : R dex_tree dex_ghost.
Proof.
  destruct (run_R dex_ops (@NewObjectTree value) ghost0 R_empty dex_legal) as (t' & Hrun & HR').
  unfold dex_tree, dex_ghost. rewrite Hrun. apply R_tset_lk; [exact HR'|].
  intros o _. unfold lk_eq, set_amlOffset. cbn. tauto.
Qed.

Lemma dex_hyps :
  let s := dex_state in let g := dex_ghost in let obj := 1 in
  exists (oo : Obj) (op fl af : N),
    R (p_tree s) g /\ info_valid (p_tree s) /\ rok (p_r s) /\ Forall (glive g) (p_scopeStack s) /\ Inv (p_tables s) s /\
    glive g 0 /\ glive g obj /\
    tget (p_tree s) obj = Some oo /\ opInfo (o_infoIndex oo) = Some (op, fl, af) /\
    hasFlag fl aml_pOpFlagDeferParsing = true /\ o_tableHandle oo = p_handle s /\
    (has_fl af -> has_parent g obj) /\ TM NoX s g /\
    lp s + 8 * r_len (p_r s) + 7 <= InvalidIndex /\
    match parseDeferredBlocks 5 400 obj s with Ok (res, s') => res = ROk /\ lp s' = 4 | _ => False end.
Proof.
  cbv zeta.
  assert (Hi : info_valid dex_tree).
  { unfold info_valid. apply (pool_cases dex_tree (fun i o => o_opcode o <> opFreed -> opInfo (o_infoIndex o) <> None)). intros n o Hn.
    do 2 (destruct n as [|n]; [vm_compute in Hn; inversion Hn; subst o; intros _; vm_compute; discriminate|]).
    vm_compute in Hn. destruct n; discriminate. }
  assert (H0 : glive dex_ghost 0) by (split; [vm_compute; reflexivity|vm_compute; intuition discriminate]).
  assert (Him : image_small dex_image) by (split; [repeat constructor; vm_compute; reflexivity|vm_compute; discriminate]).
  assert (Hcap : N.of_nat (length (t_pool dex_tree)) + 4 * N.of_nat (length dex_image) + 4 <= InvalidIndex) by (vm_compute; discriminate).
  destruct (init_FI dex_tree dex_ghost [] 1 dex_image dex_R Hi H0 Him Hcap) as ([A B C D E] & _).
  fold dex_state in A, B, C, D, E.
  eexists _, _, _, _.
  split; [exact A|]. split; [exact B|]. split; [exact C|]. split; [exact E|].
  split.
  { destruct C as (W & Sm & O). constructor; [reflexivity|exact W| |reflexivity|].
    - unfold no_wrap. unfold small_table in Sm. unfold two32 in *. lia.
    - unfold pool_ok. rewrite Forall_forall. intros o Hin. destruct (In_nth_error _ _ Hin) as (n & Hn).
      do 2 (destruct n as [|n]; [vm_compute in Hn; inversion Hn; subst o; exact I|]). vm_compute in Hn. destruct n; discriminate. }
  split; [exact H0|]. split; [split; [vm_compute; reflexivity|vm_compute; intuition discriminate]|].
  split; [vm_compute; reflexivity|]. split; [vm_compute; reflexivity|]. split; [vm_compute; reflexivity|]. split; [reflexivity|].
  split; [intros (k & Hk & Hf); exfalso; revert Hf; assert (Hc : k = 0 \/ k = 1 \/ k = 2 \/ k = 3 \/ k = 4 \/ k = 5 \/ k = 6 \/ k = 7) by lia;
          destruct Hc as [->|[->|[->|[->|[->|[->|[->| ->]]]]]]]; vm_compute; discriminate|].
  split.
  { unfold TM. change (p_tree dex_state) with dex_tree.
    apply (pool_cases dex_tree (fun m mo => o_opcode mo = aml_pOpMethod -> ~ NoX m -> mtyped dex_state dex_ghost m)). intros n o Hn Hop.
    do 2 (destruct n as [|n]; [vm_compute in Hn; inversion Hn; subst o; vm_compute in Hop; discriminate|]).
    vm_compute in Hn. destruct n; discriminate. }
  split; [vm_compute; discriminate|].
  vm_compute. split; reflexivity.
Qed.

Lemma deferred_hyps_example :
  exists (s : pstate) (g : ghost) (obj : N) (oo : Obj) (op fl af : N),
    R (p_tree s) g /\ info_valid (p_tree s) /\ rok (p_r s) /\ Forall (glive g) (p_scopeStack s) /\ Inv (p_tables s) s /\
    glive g 0 /\ glive g obj /\
    tget (p_tree s) obj = Some oo /\ opInfo (o_infoIndex oo) = Some (op, fl, af) /\
    hasFlag fl aml_pOpFlagDeferParsing = true /\ o_tableHandle oo = p_handle s /\
    (has_fl af -> has_parent g obj) /\ TM NoX s g /\
    lp s + 8 * r_len (p_r s) + 7 <= InvalidIndex /\
    match parseDeferredBlocks 5 400 obj s with Ok (res, s') => res = ROk /\ lp s' = 4 | _ => False end.
Proof. destruct dex_hyps as (oo & op & fl & af & H). exists dex_state, dex_ghost, 1, oo, op, fl, af. exact H. Qed.
