(** C11 (fragment proofs): exact steps of connectNamedObjArgs (the pass after the first pass).

    [CN_leaf] / [CNloop_leaf]: childless objects are stepped over.
    [CNloop_name]: a Name object followed by its value: the name is copied out of the name path and the value
    is moved below the Name object (attachSiblingsAsArgs = detach + append). *)
From Coq Require Import NArith ZArith Arith List Bool Lia.
From Coq Require Import ZifyBool ZifyN ZifyNat.
From FF Require Import Lib.Word Gen.Consts_device_acpi_aml Gen.Consts_aml_tree Aml.Stream Aml.Lex Aml.LexProofs
  Aml.Tree Aml.TreeSpec Aml.TreeProofs Aml.TreeProofsOps Aml.TreeProofsFind Aml.Parser
  Aml.ParserTotalTree Aml.ParserTotalTree2 Aml.ParserTotalLex Aml.ParserTotalTable Aml.ParserTotalBase
  Aml.ParserFragBase Aml.ParserFragFirst.
Import ListNotations.
Local Open Scope N_scope.

(** ---- unfolding equations ---- *)
Lemma connectNamedObjArgs_S f objIndex : connectNamedObjArgs (S f) objIndex =
  (mlet obj <~ objectAt' objIndex ;; mlet argIndex <~ rdf obj o_last ;; connectNamed_loop f obj argIndex).
Proof. reflexivity. Qed.

Lemma connectNamed_loop_S fuel' obj argIndex : connectNamed_loop (S fuel') obj argIndex =
  (if argIndex =? InvalidIndex then ret ROk else
  mlet argObj <~ objectAt' argIndex ;;
  mlet ai <~ rdf argObj o_index ;;
  mlet res <~ connectNamedObjArgs fuel' ai ;;
  if negb (pres_eqb res ROk) then ret RFailed else
  let continue := mlet prev <~ rdf argObj o_prev ;; connectNamed_loop fuel' obj prev in
  mlet ao <~ rdo argObj ;;
  mlet '(_, flags, argFlags) <~ info (o_infoIndex ao) ;;
  mlet h <~ get p_handle ;;
  if negb (hasFlag flags aml_pOpFlagNamed) || negb (o_tableHandle ao =? h) || (o_first ao =? InvalidIndex) || (o_opcode ao =? aml_pOpIntScopeBlock)
  then continue else
  mlet nameObj <~ objectAt' (o_first ao) ;;
  mlet no <~ rdo nameObj ;;
  match valueBytes no with
  | None => ret RFailed
  | Some (tbl, sl) =>
    if s_len sl <? aml_amlNameLen then ret RFailed else
    mlet bytes <~ bytesOf tbl sl ;;
    setNameFrom argObj bytes ;;;
    let argCnt := argCount argFlags in
    let tai := termArgIndex argFlags in
    mlet na <~ tq (fun t => NumArgs t (Some argObj)) ;;
    if (na =? argCnt) || (argCnt <=? tai) then continue else
    mlet r <~ attachSiblingsAsArgs fuel' obj argObj (w8 (argCnt + 0x100 - tai)) false ;;
    if negb (pres_eqb r ROk) then ret RFailed else continue
  end).
Proof. reflexivity. Qed.

Lemma attachSiblings_go_S fuel parentObj targetObj siblingIndex numArgs useParent :
  attachSiblings_go (S fuel) parentObj targetObj siblingIndex numArgs useParent =
  (if numArgs =? 0 then ret ROk else
  mlet siblingIndex <~ (if (siblingIndex =? InvalidIndex) && useParent then rdf parentObj o_next else ret siblingIndex) ;;
  if siblingIndex =? InvalidIndex then ret RFailed else
  mlet sib <~ objectAt siblingIndex ;;
  mlet sibp <~ need sib ;;
  mlet nextIdx <~ rdf sibp o_next ;;
  mlet parIdx <~ rdf sibp o_parent ;;
  mlet par <~ objectAt parIdx ;;
  detachM par (Some sibp) ;;;
  appendM (Some targetObj) sibp ;;;
  attachSiblings_go fuel parentObj targetObj nextIdx (numArgs - 1) useParent).
Proof. reflexivity. Qed.

Lemma rep_not_Inv (t : T) g pl i a : Rep t g pl -> pget pl i = Some a -> (i =? InvalidIndex) = false.
Proof.
  intros H Hg. apply N.eqb_neq. pose proof (pget_lt _ _ _ Hg) as Hlt. rewrite (rep_len_pool _ _ _ H) in Hlt.
  pose proof (R_bound _ _ (rep_R _ _ _ H)). lia.
Qed.

(** ---- childless objects ---- *)
Lemma CN_leaf f x a s g pl (Q : pres -> pstate -> Prop) :
  Rep (p_tree s) g pl -> pget pl x = Some a -> y_op a <> opFreed -> kids g x = [] -> Q ROk s ->
  wp False (connectNamedObjArgs (S (S f)) x) s Q.
Proof.
  intros H Ha Hl Hk K. rewrite connectNamedObjArgs_S.
  apply wp_bind. eapply wp_objectAt_rep; [exact H|exact Ha|exact Hl|].
  apply wp_bind. eapply wp_rdf_rep; [exact H|exact Ha|exact Hl|]. intros o _ _ _ Hlast. rewrite Hlast, Hk. cbn [last].
  rewrite connectNamed_loop_S, N.eqb_refl. apply wp_ret. exact K.
Qed.

Lemma CNloop_leaf f obj c l1 l2 a row s g pl (Q : pres -> pstate -> Prop) :
  Rep (p_tree s) g pl -> kids g obj = l1 ++ c :: l2 -> pget pl c = Some a -> y_op a <> opFreed -> kids g c = [] ->
  opInfo (y_info a) = Some row ->
  wp False (connectNamed_loop (S (S f)) obj (last l1 InvalidIndex)) s Q ->
  wp False (connectNamed_loop (S (S (S f))) obj c) s Q.
Proof.
  intros H Hk Ha Hl Hkc Hrow K. rewrite connectNamed_loop_S. rewrite (rep_not_Inv _ _ _ _ _ H Ha).
  apply wp_bind. eapply wp_objectAt_rep; [exact H|exact Ha|exact Hl|].
  apply wp_bind. eapply wp_rdf_rep; [exact H|exact Ha|exact Hl|]. intros o _ Hidx _ _. rewrite Hidx.
  apply wp_bind. eapply CN_leaf; [exact H|exact Ha|exact Hl|exact Hkc|].
  change (negb (pres_eqb ROk ROk)) with false. cbv iota zeta.
  apply wp_bind. eapply wp_rdo_rep; [exact H|exact Ha|exact Hl|]. intros ao Hpay _ Hfirst _.
  rewrite (pay_info _ _ Hpay). destruct row as [[op' flags] argFlags].
  apply wp_bind. eapply wp_info; [exact Hrow|]. cbv beta iota.
  apply wp_bind, wp_get. rewrite Hfirst, Hkc. cbn [hd]. rewrite N.eqb_refl, orb_true_r. cbn [orb].
  apply wp_bind. eapply wp_rdf_sib; [exact H|exact Hk|]. intros o' _ _ Hprev _ _. rewrite Hprev. exact K.
Qed.

(** an object whose only child is childless and is stepped over *)
Lemma CN_single f x p a ap row s g pl (Q : pres -> pstate -> Prop) :
  Rep (p_tree s) g pl -> pget pl x = Some a -> y_op a <> opFreed -> kids g x = [p] ->
  pget pl p = Some ap -> y_op ap <> opFreed -> kids g p = [] -> opInfo (y_info ap) = Some row -> Q ROk s ->
  wp False (connectNamedObjArgs (S (S (S (S f)))) x) s Q.
Proof.
  intros H Ha Hl Hk Hap Hlp Hkp Hrow K. rewrite connectNamedObjArgs_S.
  apply wp_bind. eapply wp_objectAt_rep; [exact H|exact Ha|exact Hl|].
  apply wp_bind. eapply wp_rdf_rep; [exact H|exact Ha|exact Hl|]. intros o _ _ _ Hlast. rewrite Hlast, Hk. cbn [last].
  eapply (CNloop_leaf f x p [] [] ap row); [exact H|exact Hk|exact Hap|exact Hlp|exact Hkp|exact Hrow|].
  cbn [last]. rewrite connectNamed_loop_S, N.eqb_refl. apply wp_ret. exact K.
Qed.

(** ---- moving one sibling below the target ---- *)
Lemma NoDup_mid_notin (l1 l2 : list N) c : NoDup (l1 ++ c :: l2) -> ~ In c (l1 ++ l2).
Proof. intros H. apply NoDup_remove_2 in H. exact H. Qed.

Lemma attach_one f obj tg c l1 l2 ao atg ac s g pl (Q : pres -> pstate -> Prop) :
  Rep (p_tree s) g pl -> kids g obj = l1 ++ tg :: c :: l2 -> kids g c = [] ->
  pget pl obj = Some ao -> y_op ao <> opFreed -> pget pl tg = Some atg -> y_op atg <> opFreed ->
  pget pl c = Some ac -> y_op ac <> opFreed ->
  (forall t', Rep t' (set_kids (set_kids g obj (l1 ++ tg :: l2)) tg (kids g tg ++ [c])) pl -> Q ROk (with_tree s t')) ->
  wp False (attachSiblingsAsArgs (S (S f)) obj tg 1 false) s Q.
Proof.
  intros H Hk Hkc Hao Hlo Hatg Hltg Hac Hlc K. pose proof (rep_R _ _ _ H) as HR.
  unfold attachSiblingsAsArgs.
  apply wp_bind. eapply (wp_rdf_sib False obj l1 tg (c :: l2)); [exact H|exact Hk|]. intros o _ _ _ Hnext _. rewrite Hnext. cbn [hd].
  rewrite attachSiblings_go_S. change (1 =? 0) with false. cbv iota. rewrite andb_false_r.
  apply wp_bind. apply wp_ret. rewrite (rep_not_Inv _ _ _ _ _ H Hac).
  apply wp_bind. unfold objectAt. apply wp_get. rewrite (rep_ObjectAt _ _ _ H _ _ Hac Hlc).
  apply wp_bind. apply wp_need.
  assert (Hk2 : kids g obj = (l1 ++ [tg]) ++ c :: l2) by (rewrite <- app_assoc; exact Hk).
  apply wp_bind. eapply (wp_rdf_sib False obj (l1 ++ [tg]) c l2); [exact H|exact Hk2|]. intros o1 _ _ _ _ _.
  apply wp_bind. eapply (wp_rdf_sib False obj (l1 ++ [tg]) c l2); [exact H|exact Hk2|]. intros o2 _ Hpar _ _ _. rewrite Hpar.
  apply wp_bind. unfold objectAt. apply wp_get. rewrite (rep_ObjectAt _ _ _ H _ _ Hao Hlo).
  assert (Hin_c : In c (kids g obj)) by (rewrite Hk2; apply in_or_app; right; left; reflexivity).
  assert (Hin_t : In tg (kids g obj)) by (rewrite Hk; apply in_or_app; right; left; reflexivity).
  assert (Hlive_o : glive g obj) by (eapply rep_live; eauto).
  assert (Hlive_t : glive g tg) by (eapply rep_live; eauto).
  assert (Hlive_c : glive g c) by (eapply rep_live; eauto).
  assert (Hnd : NoDup (kids g obj)).
  { destruct (rep_obj _ _ _ H _ _ Hao Hlo) as (oo & Hoo & Epay & _).
    assert (Hloo : o_opcode oo <> opFreed) by (rewrite (pay_op _ _ Epay); exact Hlo).
    destruct (R_kids _ _ HR _ _ Hoo Hloo) as (_ & _ & _ & Hnd). exact Hnd. }
  assert (Hnotin : ~ In c ((l1 ++ [tg]) ++ l2)) by (apply NoDup_mid_notin; rewrite <- Hk2; exact Hnd).
  assert (Hrem : remove1 c (kids g obj) = l1 ++ tg :: l2).
  { rewrite Hk2, remove1_split; [rewrite <- app_assoc; reflexivity|]. intros Hi. apply Hnotin. apply in_or_app. left. exact Hi. }
  apply wp_bind. eapply wp_detach_rep; [exact H|exact Hin_c|]. intros t1 H1. rewrite Hrem in H1.
  set (g1 := set_kids g obj (l1 ++ tg :: l2)) in *.
  assert (Holt : obj < N.of_nat (length (g_kids g))) by (apply glive_lt; exact Hlive_o).
  assert (Hne_to : tg <> obj) by (eapply (R_child_neq_parent _ _ HR); eauto).
  assert (Hne_co : c <> obj) by (eapply (R_child_neq_parent _ _ HR); eauto).
  assert (Hne_ct : c <> tg).
  { intros E. apply Hnotin. rewrite E. apply in_or_app. left. apply in_or_app. right. left. reflexivity. }
  assert (Hk1 : forall q, kids g1 q = if q =? obj then l1 ++ tg :: l2 else kids g q).
  { intros q. unfold g1. apply kids_set_kids. exact Holt. }
  assert (Hroot1 : groot g1 c).
  { intros q Hq. rewrite Hk1 in Hq. destruct (N.eqb_spec q obj) as [E|Hne].
    - apply Hnotin. rewrite <- app_assoc. exact Hq.
    - apply Hne. eapply (R_parent_unique _ _ HR); eauto. }
  assert (Hnd1 : ~ desc g1 c tg).
  { intros Hd. apply desc_leaf in Hd; [congruence|]. rewrite Hk1. apply N.eqb_neq in Hne_co. rewrite Hne_co. exact Hkc. }
  apply wp_bind. eapply (wp_append_rep False tg c _ g1 pl); [exact H1|apply glive_set_kids; exact Hlive_t|apply glive_set_kids; exact Hlive_c|exact Hroot1|exact Hnd1|].
  intros t2 H2. rewrite Hk1 in H2. apply N.eqb_neq in Hne_to. rewrite Hne_to in H2.
  rewrite attachSiblings_go_S. change (1 - 1 =? 0) with true. cbv iota. apply wp_ret.
  exact (K t2 H2).
Qed.

Lemma slice_bytes_tree s t' tbl sl : slice_bytes (with_tree s t') tbl sl = slice_bytes s tbl sl.
Proof. reflexivity. Qed.

(** ---- a Name object followed by its value ---- *)
Lemma CNloop_name f obj nmi p c l1 l2 ao an ap ac rowp tbl sl b0 b1 b2 b3 s g pl (Q : pres -> pstate -> Prop) :
  Rep (p_tree s) g pl -> kids g obj = l1 ++ nmi :: c :: l2 -> kids g nmi = [p] -> kids g p = [] -> kids g c = [] ->
  pget pl obj = Some ao -> y_op ao <> opFreed ->
  pget pl nmi = Some an -> y_op an = aml_pOpName -> y_info an = 3 -> y_th an = p_handle s ->
  pget pl p = Some ap -> y_op ap <> opFreed -> opInfo (y_info ap) = Some rowp -> y_val ap = Some (VBytes tbl sl) -> s_len sl = 4 ->
  slice_bytes s tbl sl = Ok [b0; b1; b2; b3] ->
  pget pl c = Some ac -> y_op ac <> opFreed ->
  (forall t', Rep t' (set_kids (set_kids g obj (l1 ++ nmi :: l2)) nmi [p; c]) (pupd pl nmi (ys_name (b0, b1, b2, b3))) ->
     wp False (connectNamed_loop (S (S (S (S f)))) obj (last l1 InvalidIndex)) (with_tree s t') Q) ->
  wp False (connectNamed_loop (S (S (S (S (S f))))) obj nmi) s Q.
Proof.
  intros H Hk Hkn Hkp Hkc Hao Hlo Han Hop Hinfo Hth Hap Hlp Hrowp Hval Hlen Hbytes Hac Hlc K.
  pose proof (rep_R _ _ _ H) as HR.
  assert (Hln : y_op an <> opFreed) by (rewrite Hop; discriminate).
  assert (Hin_n : In nmi (kids g obj)) by (rewrite Hk; apply in_or_app; right; left; reflexivity).
  assert (Hin_c : In c (kids g obj)) by (rewrite Hk; apply in_or_app; right; right; left; reflexivity).
  assert (Hne_no : nmi <> obj) by (eapply (R_child_neq_parent _ _ HR); eauto).
  assert (Hne_co : c <> obj) by (eapply (R_child_neq_parent _ _ HR); eauto).
  assert (Hne_cn : c <> nmi).
  { intros E. subst c. rewrite Hkn in Hkc. discriminate. }
  rewrite connectNamed_loop_S. rewrite (rep_not_Inv _ _ _ _ _ H Han).
  apply wp_bind. eapply wp_objectAt_rep; [exact H|exact Han|exact Hln|].
  apply wp_bind. eapply wp_rdf_rep; [exact H|exact Han|exact Hln|]. intros o _ Hidx _ _. rewrite Hidx.
  apply wp_bind. eapply (CN_single _ nmi p an ap rowp); [exact H|exact Han|exact Hln|exact Hkn|exact Hap|exact Hlp|exact Hkp|exact Hrowp|].
  change (negb (pres_eqb ROk ROk)) with false. cbv iota zeta.
  apply wp_bind. eapply wp_rdo_rep; [exact H|exact Han|exact Hln|]. intros aon Hpay _ Hfirst _.
  rewrite (pay_info _ _ Hpay), Hinfo.
  apply wp_bind. eapply wp_info; [exact name_info|]. unfold name_inf. cbv beta iota.
  apply wp_bind, wp_get.
  rewrite (pay_th _ _ Hpay), Hth, N.eqb_refl, Hfirst, Hkn, (pay_op _ _ Hpay), Hop. cbn [hd].
  rewrite (rep_not_Inv _ _ _ _ _ H Hap).
  change (negb (hasFlag 1 aml_pOpFlagNamed) || negb true || false || (aml_pOpName =? aml_pOpIntScopeBlock)) with false. cbv iota.
  apply wp_bind. eapply wp_objectAt_rep; [exact H|exact Hap|exact Hlp|].
  apply wp_bind. eapply wp_rdo_rep; [exact H|exact Hap|exact Hlp|]. intros nop Hpayp _ _ _.
  unfold valueBytes. rewrite (pay_val _ _ Hpayp), Hval, Hlen. change (4 <? aml_amlNameLen) with false. cbv iota.
  apply wp_bind. eapply wp_bytesOf; [exact Hbytes|].
  apply wp_bind. unfold setNameFrom. cbn [rev app].
  eapply (wp_wrf_rep False _ _ (ys_name (b0, b1, b2, b3))); [exact H|exact Han|exact Hln|apply st_name|].
  intros t2 H2. set (pl2 := pupd pl nmi (ys_name (b0, b1, b2, b3))) in *.
  assert (Han2 : pget pl2 nmi = Some (ys_name (b0, b1, b2, b3) an)).
  { unfold pl2. rewrite pget_pupd, N.eqb_refl, Han. reflexivity. }
  assert (Hao2 : pget pl2 obj = Some ao).
  { unfold pl2. rewrite pget_pupd. destruct (N.eqb_spec obj nmi); [congruence|exact Hao]. }
  assert (Hac2 : pget pl2 c = Some ac).
  { unfold pl2. rewrite pget_pupd. destruct (N.eqb_spec c nmi); [congruence|exact Hac]. }
  assert (Hlive_n : live t2 nmi).
  { apply (R_live_glive _ _ (rep_R _ _ _ H2)). eapply rep_live; [exact H|exact Han|exact Hln]. }
  apply wp_bind. eapply wp_tq; [apply (NumArgs_spec _ _ (rep_R _ _ _ H2) nmi Hlive_n)|].
  rewrite Hkn. cbn [length]. change (N.of_nat 1) with 1.
  change ((1 =? argCount 3081) || (argCount 3081 <=? termArgIndex 3081)) with false. cbv iota.
  change (w8 (argCount 3081 + 256 - termArgIndex 3081)) with 1.
  apply wp_bind.
  eapply (attach_one _ obj nmi c l1 l2 ao _ ac _ g pl2); [exact H2|exact Hk|exact Hkc|exact Hao2|exact Hlo|exact Han2|exact Hln|exact Hac2|exact Hlc|].
  intros t3 H3. rewrite Hkn in H3. cbn [app] in H3.
  change (negb (pres_eqb ROk ROk)) with false. cbv iota.
  set (g3 := set_kids (set_kids g obj (l1 ++ nmi :: l2)) nmi [p; c]) in *.
  assert (Holt : obj < N.of_nat (length (g_kids g))) by (apply glive_lt; eapply rep_live; eauto).
  assert (Hnlt : nmi < N.of_nat (length (g_kids g))) by (apply glive_lt; eapply rep_live; eauto).
  assert (Hk3 : kids g3 obj = l1 ++ nmi :: l2).
  { unfold g3. rewrite kids_set_kids by (rewrite len_set_kids; exact Hnlt).
    destruct (N.eqb_spec obj nmi); [congruence|]. rewrite kids_set_kids by exact Holt. rewrite N.eqb_refl. reflexivity. }
  apply wp_bind. eapply (wp_rdf_sib False obj l1 nmi l2); [exact H3|exact Hk3|]. intros o3 _ _ Hprev _ _. rewrite Hprev.
  exact (K t3 H3).
Qed.
