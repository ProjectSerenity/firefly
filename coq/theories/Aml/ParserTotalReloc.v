(** relocateNamedObjects never panics and keeps C13's tree relation.  A named object of the table
    whose name path has more than one segment is moved below the scope its path prefix resolves to - unless that scope
    lies inside the object itself (the check of commit 648a1d7), which is exactly what makes the re-attachment legal. *)
From Coq Require Import NArith Arith List Bool Lia.
From Coq Require Import ZifyBool ZifyN ZifyNat.
From FF Require Import Lib.Word Gen.Consts_device_acpi_aml Gen.Consts_aml_tree Aml.Stream Aml.Lex Aml.LexProofs
  Aml.Tree Aml.Parser Aml.ParserProofs Aml.TreeSpec Aml.TreeProofs Aml.TreeProofsOps Aml.TreeProofsFind Aml.TreeProofsAnc
  Aml.ParserTotalTree Aml.ParserTotalTree2 Aml.ParserTotalLex Aml.ParserTotalTable Aml.ParserTotalBase Aml.ParserTotalLeaf
  Aml.ParserTotalConn Aml.ParserTotalNonNamed Aml.ParserTotalCalls.
Import ListNotations.
Local Open Scope N_scope.

(** ---- preliminaries ---- *)
Lemma info_valid_ok (t : T) : info_valid t -> info_ok t.
Proof.
  intros H i o Hg Hl. specialize (H i o Hg Hl). unfold opInfo in H.
  destruct (nth_error aml_opcodeTable (N.to_nat (o_infoIndex o))) eqn:E; [|contradiction].
  assert (Hlt : (N.to_nat (o_infoIndex o) < length aml_opcodeTable)%nat) by (apply nth_error_Some; congruence).
  exact Hlt.
Qed.

Lemma closest_from_live (t : T) g (HR : R t g) : forall fuel a r, live t a -> closest_from t g fuel a = Some r -> live t r.
Proof.
  induction fuel as [|fuel IH]; intros a r Hl H; cbn [closest_from] in H; [discriminate|].
  destruct (opcode_at t a =? opScope); [discriminate|].
  destruct (named_at t a); [inversion H; subst; exact Hl|].
  destruct (parent_of g a) as [p|] eqn:Ep; [|discriminate].
  apply (IH p r); [apply (parent_of_live t g HR a p Hl Ep)|exact H].
Qed.

Lemma closest_ref_live (t : T) g (HR : R t g) p r : live t p -> closest_ref t g p = Some r -> live t r.
Proof.
  intros Hl H. unfold closest_ref in H. destruct (parent_of g p) as [a|] eqn:Ep; [|discriminate].
  apply (closest_from_live t g HR (length (g_kids g)) a r); [apply (parent_of_live t g HR p a Hl Ep)|exact H].
Qed.

Lemma Find_invalid (t : T) e : Find t InvalidIndex e = Ok InvalidIndex.
Proof. unfold Find. destruct e; [reflexivity|]. rewrite N.eqb_refl. reflexivity. Qed.

Lemma Find_from_closest (t : T) g x expr : R t g -> live t x -> live t 0 ->
  exists target, Find t (enc_result (closest_ref t g x)) expr = Ok target /\ (target = InvalidIndex \/ glive g target).
Proof.
  intros HR Hx H0. destruct (closest_ref t g x) as [a|] eqn:Ea; cbn [enc_result].
  - pose proof (closest_ref_live _ _ HR x a Hx Ea) as Hla.
    pose proof (Find_spec _ _ HR a expr Hla H0) as Ef. eexists. split; [exact Ef|].
    destruct (Find_result_live _ _ HR a expr _ Hla H0 Ef) as [E|E]; [left; exact E|right].
    apply (R_live_glive _ _ HR). exact E.
  - exists InvalidIndex. split; [apply Find_invalid|left; reflexivity].
Qed.

(** the parent of a live object, from the forest *)
Lemma parent_link s g x o : TI s g -> tget (p_tree s) x = Some o -> o_opcode o <> opFreed ->
  (o_parent o = InvalidIndex /\ groot g x) \/ (o_parent o <> InvalidIndex /\ In x (kids g (o_parent o)) /\ glive g (o_parent o)).
Proof.
  intros H Hg Hl. pose proof (ti_R _ _ H) as HR.
  destruct (N.eqb_spec (o_parent o) InvalidIndex) as [E|E].
  - left. split; auto. apply (R_groot _ _ HR x o Hg Hl). exact E.
  - right. split; auto. destruct (R_parent_live _ _ HR x o Hg Hl E) as (Hin & po & Hpo & Hlpo). split; auto.
    apply (R_live_glive _ _ HR). exists po. auto.
Qed.

(** ---- insideSelf: the ancestors of [a] up to the root do not include [obj] ---- *)
Lemma insideSelf_spec fuel : forall a obj s g, TI s g -> glive g a ->
  wp True (insideSelf_go fuel (Some a) obj) s (fun b s' => s' = s /\ (b = false -> ~ desc g obj a)).
Proof.
  induction fuel as [|fuel IH]; intros a obj s g H Hl; cbn [insideSelf_go].
  { apply wp_outOfFuel. exact I. }
  pose proof (ti_R _ _ H) as HR.
  destruct (N.eqb_spec a obj) as [E|E].
  { apply wp_ret. split; auto. discriminate. }
  destruct (TI_live_get _ _ _ H Hl) as (ao & Hao & Hlao).
  apply wp_bind. apply wp_rdf. exists ao. split; [exact Hao|].
  apply wp_bind, wp_get.
  assert (Hnotroot : forall p, In a (kids g p) -> ~ desc g obj p -> ~ desc g obj a).
  { intros p Hin Hnd Hd. destruct Hd as [|q c Hd Hin']; [contradiction|].
    assert (q = p) by (eapply (R_parent_unique _ _ HR); eauto). subst q. contradiction. }
  destruct (parent_link _ _ _ _ H Hao Hlao) as [(Ep & Hroot)|(Ep & Hin & Hlp)].
  - rewrite Ep. assert (Hn : ObjectAt (p_tree s) InvalidIndex = None).
    { destruct (ObjectAt (p_tree s) InvalidIndex) as [q|] eqn:Eo; [|reflexivity].
      destruct (ObjectAt_some _ _ _ Eo) as (_ & o' & Ho' & _). exfalso. eapply (R_pos_not_Inv _ _ HR); eauto. }
    rewrite Hn. destruct fuel as [|fuel]; cbn [insideSelf_go]; [apply wp_outOfFuel; exact I|].
    apply wp_ret. split; auto. intros _ Hd. destruct Hd as [|q c Hd Hin]; [contradiction|]. apply (Hroot q). exact Hin.
  - rewrite (TI_ObjectAt _ _ _ H Hlp).
    eapply wp_weaken; [apply (IH (o_parent ao) obj s g H Hlp)|auto|].
    intros b s' (-> & Hb). split; auto. intros Eb. apply (Hnotroot _ Hin). apply Hb. exact Eb.
Qed.

(** ---- scopeOf: the result is a live object ---- *)
Lemma nestedScope_spec fuel : forall idx s g, TI s g -> (idx = InvalidIndex \/ glive g idx) ->
  wp True (nestedScope_go fuel idx) s (fun r s' => s' = s /\ forall y, r = Some y -> glive g y).
Proof.
  induction fuel as [|fuel IH]; intros idx s g H Hidx; cbn [nestedScope_go].
  { apply wp_outOfFuel. exact I. }
  pose proof (ti_R _ _ H) as HR.
  destruct (N.eqb_spec idx InvalidIndex) as [E|E].
  { apply wp_ret. split; auto. discriminate. }
  destruct Hidx as [?|Hl]; [contradiction|].
  apply wp_bind. apply wp_objectAt'; [apply (TI_ObjectAt _ _ _ H Hl)|].
  destruct (TI_live_get _ _ _ H Hl) as (o & Ho & Hlo).
  apply wp_bind. apply wp_rdf. exists o. split; [exact Ho|].
  destruct (o_opcode o =? aml_pOpIntScopeBlock).
  { apply wp_ret. split; auto. intros y Ey. inversion Ey; subst. exact Hl. }
  apply wp_bind. apply wp_rdf. exists o. split; [exact Ho|].
  apply IH; auto.
  destruct (links_live _ _ HR idx o Ho Hlo (o_next o)) as [En|Hn]; [cbn; auto|left; exact En|right].
  apply (R_live_glive _ _ HR). exact Hn.
Qed.

Lemma scopeOf_spec target s g : TI s g -> glive g target ->
  wp True (scopeOf target) s (fun r s' => s' = s /\ forall y, r = Some y -> glive g y).
Proof.
  intros H Hl. unfold scopeOf. pose proof (ti_R _ _ H) as HR.
  apply wp_bind. apply wp_objectAt'; [apply (TI_ObjectAt _ _ _ H Hl)|].
  destruct (TI_live_get _ _ _ H Hl) as (o & Ho & Hlo).
  apply wp_bind. apply wp_rdf. exists o. split; [exact Ho|].
  destruct (o_opcode o =? aml_pOpIntScopeBlock).
  { apply wp_ret. split; auto. intros y Ey. inversion Ey; subst. exact Hl. }
  apply wp_bind. apply wp_rdf. exists o. split; [exact Ho|].
  apply wp_bind, wp_get.
  apply nestedScope_spec; auto.
  destruct (links_live _ _ HR target o Ho Hlo (o_first o)) as [En|Hn]; [cbn; auto 6|left; exact En|right].
  apply (R_live_glive _ _ HR). exact Hn.
Qed.

(** ---- scopeOf: the result is the target or one of its children, and it is a ScopeBlock ---- *)
Definition is_sb (s : pstate) (y : N) : Prop := exists o, tget (p_tree s) y = Some o /\ o_opcode o = aml_pOpIntScopeBlock.

Lemma is_sb_pframe s (t' : T) y : is_sb s y -> pframe (p_tree s) t' -> is_sb (with_tree s t') y.
Proof. intros (o & Ho & E) Hpf. destruct (proj2 Hpf _ _ Ho) as (o' & Ho' & E1 & _). exists o'. split; [exact Ho'|congruence]. Qed.

Lemma nestedScope_spec2 fuel : forall idx p s g, TI s g -> (idx = InvalidIndex \/ In idx (kids g p)) ->
  wp True (nestedScope_go fuel idx) s (fun r s' => s' = s /\ forall y, r = Some y -> In y (kids g p) /\ is_sb s y).
Proof.
  induction fuel as [|fuel IH]; intros idx p s g H Hidx; cbn [nestedScope_go].
  { apply wp_outOfFuel. exact I. }
  pose proof (ti_R _ _ H) as HR.
  destruct (N.eqb_spec idx InvalidIndex) as [E|E].
  { apply wp_ret. split; auto. discriminate. }
  destruct Hidx as [?|Hin]; [contradiction|].
  destruct ((R_gwf _ _ HR) _ _ Hin) as (Hlp & Hl).
  apply wp_bind. apply wp_objectAt'; [apply (TI_ObjectAt _ _ _ H Hl)|].
  destruct (in_split _ _ Hin) as (l1 & l2 & Ek).
  destruct (sibling_links _ _ HR _ l1 idx l2 Hlp Ek) as (o & Ho & Hlo & _ & _ & En & _).
  apply wp_bind. apply wp_rdf. exists o. split; [exact Ho|].
  destruct (N.eqb_spec (o_opcode o) aml_pOpIntScopeBlock) as [Eop|Eop].
  { apply wp_ret. split; auto. intros y Ey. inversion Ey; subst. split; [exact Hin|]. exists o. auto. }
  apply wp_bind. apply wp_rdf. exists o. split; [exact Ho|].
  apply IH; auto. rewrite En. destruct l2 as [|z l2]; [left; reflexivity|right]. cbn [hd].
  rewrite Ek. apply in_or_app. right. right. left. reflexivity.
Qed.

Lemma scopeOf_spec2 target s g : TI s g -> glive g target ->
  wp True (scopeOf target) s (fun r s' => s' = s /\ forall y, r = Some y -> (y = target \/ In y (kids g target)) /\ is_sb s y).
Proof.
  intros H Hl. unfold scopeOf. pose proof (ti_R _ _ H) as HR.
  apply wp_bind. apply wp_objectAt'; [apply (TI_ObjectAt _ _ _ H Hl)|].
  destruct (TI_live_get _ _ _ H Hl) as (o & Ho & Hlo).
  apply wp_bind. apply wp_rdf. exists o. split; [exact Ho|].
  destruct (N.eqb_spec (o_opcode o) aml_pOpIntScopeBlock) as [Eop|Eop].
  { apply wp_ret. split; auto. intros y Ey. inversion Ey; subst. split; [left; reflexivity|]. exists o. auto. }
  apply wp_bind. apply wp_rdf. exists o. split; [exact Ho|].
  apply wp_bind, wp_get.
  eapply wp_weaken; [apply (nestedScope_spec2 _ (o_first o) target s g H)|auto|].
  - destruct (R_kids _ _ HR _ _ Ho Hlo) as (Hf & _). rewrite Hf.
    destruct (kids g target) as [|c l]; [left; reflexivity|right; left; reflexivity].
  - intros r s' (-> & Hr). split; auto. intros y Ey. destruct (Hr y Ey). split; auto.
Qed.

(** ---- moving an object anywhere ---- *)
Definition shape_eq (g g' : ghost) : Prop := length (g_kids g') = length (g_kids g) /\ g_free g' = g_free g.
Definition roots_iff (g g' : ghost) : Prop := forall y, glive g y -> (groot g' y <-> groot g y).

Lemma shape_eq_glive g g' y : shape_eq g g' -> (glive g y <-> glive g' y).
Proof. intros (A & B). unfold glive. rewrite A, B. tauto. Qed.

Lemma shape_eq_refl g : shape_eq g g. Proof. split; reflexivity. Qed.
Lemma shape_eq_trans a b c : shape_eq a b -> shape_eq b c -> shape_eq a c.
Proof. intros (A1 & A2) (B1 & B2). split; congruence. Qed.
Lemma roots_iff_refl g : roots_iff g g. Proof. intros y _. tauto. Qed.
Lemma roots_iff_trans a b c : shape_eq a b -> roots_iff a b -> roots_iff b c -> roots_iff a c.
Proof. intros S H1 H2 y Hy. rewrite (H2 y); [apply H1; exact Hy|]. apply (shape_eq_glive _ _ _ S). exact Hy. Qed.

(** ---- relocateNamedObjects ---- *)
Definition okroot (s : pstate) (g : ghost) (x : N) : Prop :=
  groot g x -> exists o, tget (p_tree s) x = Some o /\ o_opcode o = aml_pOpIntScopeBlock.

(** [J] is any further invariant that the caller wants to carry through the pass: it has to survive a change of the
    counters and one relocation (the named object [x] moves from [par] to the ScopeBlock [tg], the value of its first
    child is rewritten) *)
Section Reloc.
Variable J : pstate -> ghost -> Prop.
Hypothesis J_counters : forall s g a b c, J s g -> J (with_counters s a b c) g.
Hypothesis J_reloc : forall s g x xo op fl af par tg (t2 : T) g2 v,
  TI s g -> J s g -> tget (p_tree s) x = Some xo -> opInfo (o_infoIndex xo) = Some (op, fl, af) ->
  hasFlag fl aml_pOpFlagNamed = true -> o_opcode xo <> aml_pOpIntScopeBlock -> o_tableHandle xo = p_handle s ->
  In x (kids g par) -> is_sb s tg -> glive g tg -> kids g x <> [] ->
  pframe (p_tree s) t2 -> shape_eq g g2 -> roots_iff g g2 ->
  (forall q, kids g2 q = (if q =? par then remove1 x (kids g par) else kids g q) ++ (if q =? tg then [x] else [])) ->
  J (with_tree s (tset t2 (hd InvalidIndex (kids g x)) (set_value v))) g2.

Definition rlpost (g : ghost) (s' : pstate) (g' : ghost) : Prop := TI s' g' /\ shape_eq g g' /\ roots_iff g g' /\ J s' g'.

Definition RL_spec (fuel : nat) : Prop := forall x s g, TI s g -> J s g -> glive g 0 -> glive g x -> okroot s g x ->
  wp True (relocateNamedObjects fuel x) s (fun r s' => exists g', rlpost g s' g').

Definition RLloop_spec (fuel : nat) : Prop := forall sib res s g, TI s g -> J s g -> glive g 0 ->
  (sib = InvalidIndex \/ (glive g sib /\ ~ groot g sib)) ->
  wp True (relocate_loop fuel sib res) s (fun r s' => exists g', rlpost g s' g').

Lemma TI_counters s g a b c : TI s g -> TI (with_counters s a b c) g.
Proof. intros [A B C]. constructor; auto. Qed.

Lemma rlpost_trans g g1 s' g' : shape_eq g g1 -> roots_iff g g1 -> rlpost g1 s' g' -> rlpost g s' g'.
Proof.
  intros S1 R1 (F1 & F2 & F3 & F4). split; auto. split; [eapply shape_eq_trans; eauto|]. split; [eapply roots_iff_trans; eauto|exact F4].
Qed.

Lemma step_RLloop fuel : RL_spec fuel -> RLloop_spec fuel -> RLloop_spec (S fuel).
Proof.
  intros IHc IHl sib res s g H HJ H0 Hsib. cbn [relocate_loop].
  destruct (N.eqb_spec sib InvalidIndex) as [Ei|Ei].
  { apply wp_ret. exists g. split; auto. split; [apply shape_eq_refl|]. split; [apply roots_iff_refl|exact HJ]. }
  destruct Hsib as [?|(Hl & Hnr)]; [contradiction|].
  pose proof (ti_R _ _ H) as HR.
  apply wp_bind. apply wp_objectAt'; [apply (TI_ObjectAt _ _ _ H Hl)|].
  destruct (TI_live_get _ _ _ H Hl) as (o & Ho & Hlo).
  apply wp_bind. apply wp_rdf. exists o. split; [exact Ho|].
  apply wp_bind. apply wp_rdf. exists o. split; [exact Ho|]. rewrite (R_index _ _ HR _ _ Ho).
  (* the next sibling is a live child of the same parent *)
  assert (Hnx : o_next o = InvalidIndex \/ (glive g (o_next o) /\ ~ groot g (o_next o))).
  { destruct (parent_link _ _ _ _ H Ho Hlo) as [(_ & Hr)|(Ep & Hin & Hlp)]; [contradiction|].
    destruct (in_split _ _ Hin) as (l1 & l2 & Ek).
    destruct (sibling_links _ _ HR _ l1 sib l2 Hlp Ek) as (o' & Ho' & _ & _ & _ & En & _).
    assert (o' = o) by congruence. subst o'. rewrite En.
    destruct l2 as [|y l2']; [left; reflexivity|right]. cbn [hd].
    assert (Hy : In y (kids g (o_parent o))) by (rewrite Ek; apply in_or_app; right; right; left; reflexivity).
    split; [apply ((R_gwf _ _ HR) _ _ Hy)|]. intros Hr. apply (Hr _ Hy). }
  apply wp_bind. eapply wp_weaken; [apply (IHc sib s g H HJ H0 Hl)|auto|].
  { intros Hr. contradiction. }
  intros r s1 (g1 & H1 & S1 & R1 & J1).
  assert (H01 : glive g1 0) by (apply (shape_eq_glive _ _ _ S1); exact H0).
  assert (Hnx1 : o_next o = InvalidIndex \/ (glive g1 (o_next o) /\ ~ groot g1 (o_next o))).
  { destruct Hnx as [E|(A & B)]; [left; exact E|right]. split; [apply (shape_eq_glive _ _ _ S1); exact A|].
    intros Hr. apply B. apply (R1 _ A). exact Hr. }
  destruct r.
  - apply wp_ret. exists g1. split; auto.
  - eapply wp_weaken; [apply (IHl (o_next o) res s1 g1 H1 J1 H01 Hnx1)|auto|].
    intros r' s' (g' & F). exists g'. eapply rlpost_trans; eauto.
  - eapply wp_weaken; [apply (IHl (o_next o) res s1 g1 H1 J1 H01 Hnx1)|auto|].
    intros r' s' (g' & F). exists g'. eapply rlpost_trans; eauto.
  - eapply wp_weaken; [apply (IHl (o_next o) RExtra s1 g1 H1 J1 H01 Hnx1)|auto|].
    intros r' s' (g' & F). exists g'. eapply rlpost_trans; eauto.
Qed.

Lemma wp_counters P (f : pstate -> pstate) s (Q : unit -> pstate -> Prop) :
  Q tt (f s) -> wp P (fun s0 => Ok (tt, f s0)) s Q.
Proof. intros H. exact H. Qed.

Lemma slice_tail_ok tbls tbl p len : 4 < len ->
  slice_ok tbls tbl (mkSlice (Some p) len) ->
  value_ok tbls (Some (bytesValue tbl (mkSlice (Some (p + (len - aml_amlNameLen))) aml_amlNameLen))).
Proof.
  intros Hlen (d & Hd & Hin). unfold bytesValue. cbn [s_ptr value_ok]. exists d. split; auto.
  destruct Hin as [Hz|(q & Hq & Hle)]; cbn [s_len s_ptr] in *; [lia|]. inversion Hq; subst q.
  right. exists (p + (len - aml_amlNameLen)). split; auto. cbn [s_len]. unfold aml_amlNameLen. lia.
Qed.

Lemma step_RL fuel : RLloop_spec fuel -> RL_spec (S fuel).
Proof.
  intros IHl x s g H HJ H0 Hl Hok. cbn [relocateNamedObjects].
  pose proof (ti_R _ _ H) as HR.
  apply wp_bind. apply wp_objectAt'; [apply (TI_ObjectAt _ _ _ H Hl)|].
  destruct (TI_live_get _ _ _ H Hl) as (oo & Hoo & Hloo).
  apply wp_bind. apply wp_rdo. exists oo. split; [exact Hoo|].
  pose proof (ti_info _ _ H _ _ Hoo Hloo) as Hinfo.
  destruct (opInfo (o_infoIndex oo)) as [[[op fl] af]|] eqn:Erow; [|contradiction].
  apply wp_bind. eapply wp_info; [exact Erow|].
  (* the counter reset does not touch the tree *)
  assert (Hcnt : forall (Q : unit -> pstate -> Prop),
     (forall s1, TI s1 g -> J s1 g -> p_tree s1 = p_tree s -> p_tables s1 = p_tables s -> Q tt s1) ->
     wp True (if x =? 0 then fun s0 => Ok (tt, with_counters s0 (p_resolvePasses s0) (p_mergedScopes s0) 0) else ret tt) s Q).
  { intros Q K. destruct (x =? 0); [apply wp_counters|apply wp_ret]; apply K; auto. apply TI_counters. exact H. }
  apply wp_bind. apply Hcnt. intros s1 H1 HJ1 Et1 Etb1.
  assert (Hoo1 : tget (p_tree s1) x = Some oo) by (rewrite Et1; exact Hoo).
  destruct (hasFlag fl aml_pOpFlagExecutable).
  { apply wp_ret. exists g. split; auto. split; [apply shape_eq_refl|]. split; [apply roots_iff_refl|exact HJ1]. }
  apply wp_bind, wp_get.
  (* the loop over the children *)
  assert (Hloop : forall s2 g2, TI s2 g2 -> J s2 g2 -> shape_eq g g2 -> roots_iff g g2 -> kids g2 x = kids g x ->
     wp True (mlet first <~ rdf x o_first ;; relocate_loop fuel first ROk) s2 (fun r s' => exists g', rlpost g s' g')).
  { intros s2 g2 H2 J2 S2 R2 Hk2. pose proof (ti_R _ _ H2) as HR2.
    assert (Hl2 : glive g2 x) by (apply (shape_eq_glive _ _ _ S2); exact Hl).
    destruct (TI_live_get _ _ _ H2 Hl2) as (o2 & Ho2 & Hlo2).
    apply wp_bind. apply wp_rdf. exists o2. split; [exact Ho2|].
    destruct (R_kids _ _ HR2 _ _ Ho2 Hlo2) as (Hf2 & _). rewrite Hf2.
    eapply wp_weaken; [apply (IHl (hd InvalidIndex (kids g2 x)) ROk s2 g2 H2 J2)|auto|].
    - apply (shape_eq_glive _ _ _ S2). exact H0.
    - destruct (kids g2 x) as [|c l] eqn:Ek; [left; reflexivity|right]. cbn [hd].
      assert (Hc : In c (kids g2 x)) by (rewrite Ek; left; reflexivity).
      split; [apply ((R_gwf _ _ HR2) _ _ Hc)|]. intros Hr. apply (Hr _ Hc).
    - intros r s' (g' & F). exists g'. eapply rlpost_trans; eauto. }
  assert (Hskip : wp True (mlet first <~ rdf x o_first ;; relocate_loop fuel first ROk) s1 (fun r s' => exists g', rlpost g s' g'))
    by (apply (Hloop s1 g H1 HJ1 (shape_eq_refl g) (roots_iff_refl g) eq_refl)).
  assert (Hfail : forall (r : pres), wp True (ret r) s1 (fun r s' => exists g', rlpost g s' g')).
  { intros r. apply wp_ret. exists g. split; auto. split; [apply shape_eq_refl|]. split; [apply roots_iff_refl|exact HJ1]. }
  apply wp_bind.
  destruct (hasFlag fl aml_pOpFlagNamed && negb (o_first oo =? InvalidIndex) && (o_tableHandle oo =? p_handle s1) &&
            negb (o_opcode oo =? aml_pOpIntScopeBlock)) eqn:Econd.
  2:{ apply wp_ret. exact Hskip. }
  apply andb_prop in Econd. destruct Econd as (Econd & Enotsb). apply andb_prop in Econd. destruct Econd as (Econd & Ehandle).
  apply andb_prop in Econd. destruct Econd as (Enamed & Efirst). apply N.eqb_eq in Ehandle.
  apply negb_true_iff in Enotsb. apply N.eqb_neq in Enotsb. apply negb_true_iff in Efirst. apply N.eqb_neq in Efirst.
  pose proof (ti_R _ _ H1) as HR1.
  destruct (R_kids _ _ HR1 _ _ Hoo1 Hloo) as (Hfirst & _).
  destruct (hd_nonempty _ _ _ (eq_sym Hfirst) Efirst) as (krest & Ek).
  assert (Hin_n : In (o_first oo) (kids g x)) by (rewrite Ek; left; reflexivity).
  destruct ((R_gwf _ _ HR1) _ _ Hin_n) as (_ & Hln).
  apply wp_bind. apply wp_objectAt'; [apply (TI_ObjectAt _ _ _ H1 Hln)|].
  destruct (TI_live_get _ _ _ H1 Hln) as (no & Hno & Hlno).
  apply wp_bind. apply wp_rdo. exists no. split; [exact Hno|].
  destruct (valueBytes no) as [[tbl sl]|] eqn:Ev.
  2:{ apply wp_ret. apply Hfail. }
  destruct (aml_amlNameLen <? s_len sl) eqn:Elen.
  2:{ apply wp_ret. exact Hskip. }
  apply N.ltb_lt in Elen.
  assert (Hvno : o_value no = Some (VBytes tbl sl)).
  { unfold valueBytes in Ev. destruct (o_value no) as [[n|tb sl0|i|f]|]; try discriminate. inversion Ev; subst. reflexivity. }
  assert (Hsl : slice_ok (p_tables s1) tbl sl).
  { pose proof (pool_ok_get _ _ _ _ (ti_pool _ _ H1) Hno) as Hv. rewrite Hvno in Hv. exact Hv. }
  destruct (slice_bytes_ok s1 tbl sl Hsl) as (bytes & Eb & _).
  apply wp_bind. eapply wp_bytesOf; [exact Eb|].
  assert (Hlive_x : live (p_tree s1) x) by (apply (R_live_glive _ _ HR1); exact Hl).
  assert (Hlive_0 : live (p_tree s1) 0) by (apply (R_live_glive _ _ HR1); exact H0).
  apply wp_bind. eapply wp_tq; [apply (ClosestNamedAncestor_spec _ _ HR1 (info_valid_ok _ (ti_info _ _ H1)) x Hlive_x)|].
  set (expr := firstn (N.to_nat (s_len sl - aml_amlNameLen)) bytes).
  destruct (Find_from_closest (p_tree s1) g x expr HR1 Hlive_x Hlive_0) as (target & Efind & Htarget).
  apply wp_bind. eapply wp_tq; [exact Efind|].
  destruct (N.eqb_spec target InvalidIndex) as [Et|Et].
  { apply wp_bind, wp_get. destruct (aml_maxResolvePasses <? p_resolvePasses s1); apply wp_ret; apply Hfail. }
  destruct Htarget as [?|Hlt]; [contradiction|].
  apply wp_bind. eapply wp_weaken; [apply (scopeOf_spec2 target s1 g H1 Hlt)|auto|].
  intros tgt s1' (-> & Htgt).
  destruct tgt as [targetObj|]; [|apply wp_ret; apply Hfail].
  destruct (Htgt targetObj eq_refl) as (Htg_where & Htg_sb). clear Htgt.
  assert (Htgt : glive g targetObj).
  { destruct Htg_where as [->|Hin0]; [exact Hlt|]. apply ((R_gwf _ _ HR1) _ _ Hin0). }
  apply wp_bind, wp_get.
  apply wp_bind. eapply wp_weaken; [apply (insideSelf_spec _ targetObj x s1 g H1 Htgt)|auto|].
  intros inside s1' (-> & Hinside).
  destruct inside; [apply wp_ret; apply Hfail|].
  specialize (Hinside eq_refl).
  (* the object has a parent: a root would be a ScopeBlock *)
  apply wp_bind. apply wp_rdf. exists oo. split; [exact Hoo1|].
  destruct (parent_link _ _ _ _ H1 Hoo1 Hloo) as [(_ & Hr)|(Ep & Hin & Hlp)].
  { exfalso. destruct (Hok Hr) as (o' & Ho' & Hop'). assert (o' = oo) by congruence. subst o'. contradiction. }
  apply wp_bind, wp_get. rewrite (TI_ObjectAt _ _ _ H1 Hlp).
  eapply (move_gen True (o_parent oo) x targetObj _ s1 g); [exact H1|exact Hin|exact Htgt|exact Hinside|].
  intros t2 g2 H2 S2 R2 Hk2 _ Hpf2 Hkf2.
  pose proof (ti_R _ _ H2) as HR2.
  assert (Hl2 : glive g2 x) by (apply (shape_eq_glive _ _ _ S2); exact Hl).
  destruct (TI_live_get _ _ _ H2 Hl2) as (o2 & Ho2 & Hlo2).
  apply wp_bind. apply wp_rdf. exists o2. split; [exact Ho2|].
  destruct (R_kids _ _ HR2 _ _ Ho2 Hlo2) as (Hf2 & _). rewrite Hf2, Hk2, Ek. cbn [hd].
  assert (Hln2 : glive g2 (o_first oo)) by (apply (shape_eq_glive _ _ _ S2); exact Hln).
  apply wp_bind. apply wp_objectAt'; [apply (TI_ObjectAt _ _ _ H2 Hln2)|].
  destruct (TI_live_get _ _ _ H2 Hln2) as (no2 & Hno2 & _).
  apply wp_bind. apply wp_wrf; [eauto|].
  match goal with |- wp _ _ ?st _ => set (s3 := st) end.
  assert (H3 : TI s3 g2).
  { unfold s3. apply TI_tset; auto.
    - intros o _. unfold lk_eq. cbn [o_opcode o_index o_parent o_prev o_next o_first o_last set_value]. repeat split; auto.
    - intros o Ho Hlo. cbn [o_infoIndex set_value]. apply (ti_info _ _ H2 _ _ Ho Hlo).
    - intros o _. cbn [o_value set_value]. pcbn.
      destruct Hsl as (d & Hd & Hins). destruct Hins as [Hz|(p & Hp & Hle)]; [unfold aml_amlNameLen in Elen; lia|].
      rewrite Hp. replace (p_tables (with_tree s1 t2)) with (p_tables s1) by reflexivity.
      apply (slice_tail_ok _ tbl p (s_len sl)); [unfold aml_amlNameLen in Elen; lia|].
      exists d. split; auto. right. exists p. destruct sl as [ptr len]. cbn [s_ptr s_len] in *. subst ptr. auto. }
  assert (J3 : J s3 g2).
  { unfold s3. assert (Ekx : kids g x <> []) by (rewrite Ek; discriminate).
    pose proof (J_reloc s1 g x oo op fl af (o_parent oo) targetObj t2 g2
      (Some (bytesValue tbl (mkSlice (match s_ptr sl with Some p => Some (p + (s_len sl - aml_amlNameLen)) | None => None end) aml_amlNameLen)))
      H1 HJ1 Hoo1 Erow Enamed Enotsb Ehandle Hin Htg_sb Htgt Ekx Hpf2 S2 R2 Hkf2) as JJ.
    rewrite Ek in JJ. cbn [hd] in JJ. exact JJ. }
  apply wp_bind. apply wp_counters. apply wp_ret.
  apply (Hloop _ g2); auto. apply TI_counters. exact H3.
Qed.

Lemma reloc_all : forall fuel, RL_spec fuel /\ RLloop_spec fuel.
Proof.
  induction fuel as [|fuel (IHc & IHl)].
  - split; intro; intros; cbn [relocateNamedObjects relocate_loop]; apply wp_outOfFuel; exact I.
  - split; [apply step_RL; exact IHl|apply step_RLloop; assumption].
Qed.
End Reloc.

(** the hypotheses are satisfiable: a state whose pool holds just the root ScopeBlock *)
Lemma reloc_hyps_example :
  exists (s : pstate) (g : ghost),
    R (p_tree s) g /\ info_valid (p_tree s) /\ pool_ok (p_tables s) (p_tree s) /\ glive g 0 /\
    (exists o, tget (p_tree s) 0 = Some o /\ o_opcode o = aml_pOpIntScopeBlock).
Proof.
  destruct (root_only_example opScopeBlock) as (s & g & po & A & B & C & D & E & Hop & Hall); [apply newokb_sound; reflexivity|].
  exists s, g. repeat (split; [assumption|]). exists po. split; [apply Hall; auto|exact Hop].
Qed.
