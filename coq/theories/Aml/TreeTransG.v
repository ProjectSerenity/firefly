(** Find of obj_tree.go: the hand-written model (Aml/Tree.v: [Find], [find_carets], [find_upward], [find_sibling]) equals the
    Go -> Gallina translation (Gen/Trans_aml_tree.v).  Continuation of Aml/TreeTransF.v (findRelative), same method: the
    regenerated term is compared by [reflexivity] ([Find_unfold]) with a structured copy of itself ([fd_sib], [fd_up],
    [fd_caret], [fd_main]; the byte loop is [fr_byte] of TreeTransF.v with the identity as index function); the sibling loop
    is [find_sibling] ([fsib_loop]), the upward loop [find_upward] ([up_loop]), the '^' loop [find_carets] with the invariant
    "the model's remaining list is [skipn startIndex expr]" ([caret_loop]); the switch of Find is the model's case analysis. *)
From Coq Require Import NArith PeanoNat List Bool Lia.
From FF Require Import Lib.Std Lib.Word Lib.GoOps Lib.GoOpsExt Lib.GoOpsProofs Lib.GoPool Gen.Consts_aml_tree Gen.Trans_aml_tree Aml.Stream Aml.Tree Aml.TreeTrans Aml.TreeTransF.
Import ListNotations.
Local Open Scope N_scope.
Transparent InvalidIndex opFreed.
Local Open Scope bool_scope.

Section G.
Context {V : Type}.
Notation Obj := (Object V).
Notation Tree := (ObjectTree V).
Local Notation go_aml_ObjectTree := (@FF.Gen.Trans_aml_tree.go_aml_ObjectTree V).

Definition fd_sib (fuel : nat) (v_expr : list N)
  : (go_aml_ObjectTree * bool * N) -> gres (gctl (go_aml_ObjectTree * bool * N) (go_aml_ObjectTree * N)) :=
  (fun st : (go_aml_ObjectTree * bool * N)%type => let '(v_tree, v_cont_checkNextSibling, v_nextIndex) := st in
  if (negb (v_nextIndex =? tree_InvalidIndex))
  then (match go_aml_ObjectTree_ObjectAt v_tree v_nextIndex with GPanic => GPanic | GFuel => GFuel | GOk (v_tree, t13) =>
  let v_obj := t13 in
  let v_cont_checkNextSibling := false in
  let v_byteIndex := (gw 64 (0)%N) in
  match gloop (R := (go_aml_ObjectTree * N)%type) fuel (fr_byte v_expr (fun b => b) v_obj) (v_tree, v_byteIndex, v_cont_checkNextSibling) with
  | GPanic => GPanic | GFuel => GFuel
  | GOk (inr r) => (GOk (GRet r))
  | GOk (inl st) => let '(v_tree, v_byteIndex, v_cont_checkNextSibling) := st in
  if v_cont_checkNextSibling
  then (match go_aml_ObjectTree_ObjectAt v_tree v_nextIndex with GPanic => GPanic | GFuel => GFuel | GOk (v_tree, t17) =>
  match gderef (f_ObjectTree_objPool v_tree) t17 with None => GPanic | Some t18 =>
  let v_nextIndex := (f_Object_nextSiblingIndex t18) in
  (GOk (GNext (v_tree, v_cont_checkNextSibling, v_nextIndex))) end end)
  else (match gderef (f_ObjectTree_objPool v_tree) v_obj with None => GPanic | Some t19 =>
  (GOk (GRet (v_tree, (f_Object_index t19)))) end)
  end end)
  else ((GOk (GBreak (v_tree, v_cont_checkNextSibling, v_nextIndex))))).

Definition fd_up (fuel : nat) (v_expr : list N)
  : (go_aml_ObjectTree * N) -> gres (gctl (go_aml_ObjectTree * N) (go_aml_ObjectTree * N)) :=
  (fun st : (go_aml_ObjectTree * N)%type => let '(v_tree, v_nextScopeIndex) := st in
  if (negb (v_nextScopeIndex =? tree_InvalidIndex))
  then (match go_aml_ObjectTree_ObjectAt v_tree v_nextScopeIndex with GPanic => GPanic | GFuel => GFuel | GOk (v_tree, t11) =>
  let v_scopeObj := t11 in
  let v_cont_checkNextSibling := false in
  match gderef (f_ObjectTree_objPool v_tree) v_scopeObj with None => GPanic | Some t12 =>
  let v_nextIndex := (f_Object_firstArgIndex t12) in
  match gloop (R := (go_aml_ObjectTree * N)%type) fuel (fd_sib fuel v_expr) (v_tree, v_cont_checkNextSibling, v_nextIndex) with
  | GPanic => GPanic | GFuel => GFuel
  | GOk (inr r) => (GOk (GRet r))
  | GOk (inl st) => let '(v_tree, v_cont_checkNextSibling, v_nextIndex) := st in
  match go_aml_ObjectTree_ObjectAt v_tree v_nextScopeIndex with GPanic => GPanic | GFuel => GFuel | GOk (v_tree, t20) =>
  match gderef (f_ObjectTree_objPool v_tree) t20 with None => GPanic | Some t21 =>
  let v_nextScopeIndex := (f_Object_parentIndex t21) in
  (GOk (GNext (v_tree, v_nextScopeIndex))) end end
  end end end)
  else ((GOk (GBreak (v_tree, v_nextScopeIndex))))).

Definition fd_caret (fuel : nat) (v_expr : list N) (v_exprLen : N)
  : (go_aml_ObjectTree * N * N) -> gres (gctl (go_aml_ObjectTree * N * N) (go_aml_ObjectTree * N)) :=
  (fun st : (go_aml_ObjectTree * N * N)%type => let '(v_tree, v_scopeIndex, v_startIndex) := st in
  if (gslt 64 v_startIndex v_exprLen)
  then (match gidxs 64 v_expr v_startIndex with None => GPanic | Some t5 =>
  let v_sw1 := t5 in
  if (v_sw1 =? (94)%N)
  then (match go_aml_ObjectTree_ObjectAt v_tree v_scopeIndex with GPanic => GPanic | GFuel => GFuel | GOk (v_tree, t6) =>
  match gderef (f_ObjectTree_objPool v_tree) t6 with None => GPanic | Some t7 =>
  let v_scopeIndex := (f_Object_parentIndex t7) in
  if (v_scopeIndex =? tree_InvalidIndex)
  then ((GOk (GRet (v_tree, tree_InvalidIndex))))
  else (let v_startIndex := (gw 64 (v_startIndex + 1)) in
  (GOk (GNext (v_tree, v_scopeIndex, v_startIndex)))) end end)
  else (match gslices 64 v_expr v_startIndex (glen v_expr) with None => GPanic | Some t8 =>
  match go_aml_ObjectTree_findRelative fuel v_tree v_scopeIndex t8 with GPanic => GPanic | GFuel => GFuel | GOk (v_tree, t9) =>
  (GOk (GRet (v_tree, t9))) end end) end)
  else ((GOk (GBreak (v_tree, v_scopeIndex, v_startIndex))))).

Definition fd_main (fuel : nat) (v_tree : go_aml_ObjectTree) (v_scopeIndex : N) (v_expr : list N) : gres (go_aml_ObjectTree * N) :=
  let v_exprLen := (glen v_expr) in
  if ((v_exprLen =? (0)%N) || (v_scopeIndex =? tree_InvalidIndex))
  then ((GOk (v_tree, tree_InvalidIndex)))
  else (match gidx v_expr (0)%N with None => GPanic | Some t1 =>
  if (t1 =? (92)%N)
  then (if (v_exprLen =? (1)%N)
  then ((GOk (v_tree, (gw 32 (0)%N))))
  else (match gslice v_expr (1)%N (glen v_expr) with None => GPanic | Some t2 =>
  match go_aml_ObjectTree_findRelative fuel v_tree (0)%N t2 with GPanic => GPanic | GFuel => GFuel | GOk (v_tree, t3) =>
  (GOk (v_tree, t3)) end end))
  else (match gidx v_expr (0)%N with None => GPanic | Some t4 =>
  if (t4 =? (94)%N)
  then (let v_startIndex := (gw 64 (0)%N) in
  match gloop (R := (go_aml_ObjectTree * N)%type) fuel (fd_caret fuel v_expr v_exprLen) (v_tree, v_scopeIndex, v_startIndex) with
  | GPanic => GPanic | GFuel => GFuel
  | GOk (inr r) => (GOk r)
  | GOk (inl st) => let '(v_tree, v_scopeIndex, v_startIndex) := st in
  (GOk (v_tree, v_scopeIndex))
  end)
  else (if (gslt 64 tree_amlNameLen v_exprLen)
  then (match go_aml_ObjectTree_findRelative fuel v_tree v_scopeIndex v_expr with GPanic => GPanic | GFuel => GFuel | GOk (v_tree, t10) =>
  (GOk (v_tree, t10)) end)
  else (if (v_exprLen =? tree_amlNameLen)
  then (let v_nextScopeIndex := v_scopeIndex in
  match gloop (R := (go_aml_ObjectTree * N)%type) fuel (fd_up fuel v_expr) (v_tree, v_nextScopeIndex) with
  | GPanic => GPanic | GFuel => GFuel
  | GOk (inr r) => (GOk r)
  | GOk (inl st) => let '(v_tree, v_nextScopeIndex) := st in
  (GOk (v_tree, tree_InvalidIndex))
  end)
  else ((GOk (v_tree, tree_InvalidIndex))))) end) end).

Lemma Find_unfold : forall fuel g scope expr,
  go_aml_ObjectTree_Find fuel g scope expr = fd_main fuel g scope expr.
Proof. reflexivity. Qed.

(** ---- the sibling loop of Find (returns obj.index on a match) against [find_sibling] ---- *)
Definition fsib_expected (t : Tree) (ccs' : bool) (r : outcome (option N))
  : gres ((go_aml_ObjectTree * bool * N) + (go_aml_ObjectTree * N)) :=
  match r with
  | Ok None => GOk (inl (tr_tree t, ccs', tree_InvalidIndex))
  | Ok (Some c) => match deref t c with Ok o => GOk (inr (tr_tree t, o_index o)) | _ => GPanic end
  | Panic => GPanic
  | OutOfFuel => GFuel
  end.

Lemma fsib_loop : forall (t : Tree) expr b0 b1 b2 b3 fuel,
  (5 <= fuel)%nat -> expr = [b0; b1; b2; b3] ->
  forall f ccs next,
  exists ccs', gloop f (fd_sib fuel expr) (tr_tree t, ccs, next) =
               fsib_expected t ccs' (find_sibling f t next (b0, b1, b2, b3)).
Proof.
  intros t expr b0 b1 b2 b3 fuel Hf ->.
  induction f as [|f IH]; intros ccs next; [exists false; reflexivity|].
  cbn [find_sibling]. rewrite gloop_S. unfold fd_sib at 1. unfold InvalidIndex.
  destruct (next =? tree_InvalidIndex) eqn:E; cbn [negb].
  - apply N.eqb_eq in E. subst next. exists ccs; reflexivity.
  - rewrite ObjectAt_is_translation. unfold ObjectAt_deref.
    destruct (ObjectAt t next) as [p|] eqn:OA; cbn [bind].
    + destruct (ObjectAt_some_deref _ _ _ OA) as [-> [o D]]. rewrite D. cbn [bind].
      cbv zeta. change (gw 64 0) with 0.
      destruct (byte_loop t [b0; b1; b2; b3] (fun b => b) next o b0 b1 b2 b3 fuel D) as [bi BL];
        try reflexivity; trivial.
      rewrite BL. cbv iota beta.
      destruct (name_eqb (b0, b1, b2, b3) (o_name o)); cbn [negb].
      * exists false. rewrite gderef_tr, D. cbn [fsib_expected]. rewrite D. reflexivity.
      * rewrite ObjectAt_is_translation, OA, gderef_tr, D.
        change (f_Object_nextSiblingIndex (tr_obj o)) with (o_next o).
        apply IH.
    + cbv zeta. change (gw 64 0) with 0. exists false.
      rewrite (byte_loop_nil (tr_tree t) [b0; b1; b2; b3] (fun b => b) b0 fuel); trivial; try reflexivity. lia.
Qed.

(** ---- the model with the fuels as parameters ---- *)
Fixpoint find_upward_f (fs : nat) (fuel : nat) (t : Tree) (nextScopeIndex : N) (nm : Name) : outcome N :=
  match fuel with
  | O => OutOfFuel
  | S fuel =>
      if nextScopeIndex =? InvalidIndex then Ok InvalidIndex
      else
        do scopeObj <- ObjectAt_deref t nextScopeIndex;
        do first <- rd t scopeObj o_first;
        do r <- find_sibling fs t first nm;
        match r with
        | Some c => rd t c o_index
        | None => do par <- rd t scopeObj o_parent; find_upward_f fs fuel t par nm
        end
  end.

Lemma find_upward_f_chain : forall (t : Tree) fuel s nm,
  find_upward_f (chain_fuel t) fuel t s nm = find_upward fuel t s nm.
Proof.
  intros t. induction fuel as [|fuel IH]; intros s nm; [reflexivity|]. cbn [find_upward_f find_upward].
  destruct (s =? InvalidIndex); [reflexivity|].
  destruct (ObjectAt_deref t s); cbn [bind]; try reflexivity.
  destruct (rd t a o_first); cbn [bind]; try reflexivity.
  destruct (find_sibling (chain_fuel t) t a0 nm) as [[c|]| |]; cbn [bind]; try reflexivity.
  destruct (rd t a o_parent); cbn [bind]; try reflexivity. apply IH.
Qed.

Definition fd_up_post (x : gres ((go_aml_ObjectTree * N) + (go_aml_ObjectTree * N))) : gres (go_aml_ObjectTree * N) :=
  match x with
  | GPanic => GPanic | GFuel => GFuel
  | GOk (inr r) => GOk r
  | GOk (inl st) => let '(g, _) := st in GOk (g, tree_InvalidIndex)
  end.

Lemma up_loop : forall (t : Tree) expr b0 b1 b2 b3 fuel,
  (5 <= fuel)%nat -> expr = [b0; b1; b2; b3] ->
  forall f s,
  fd_up_post (gloop f (fd_up fuel expr) (tr_tree t, s)) =
  lift (fun r => (tr_tree t, r)) (find_upward_f fuel f t s (b0, b1, b2, b3)).
Proof.
  intros t expr b0 b1 b2 b3 fuel Hf He.
  induction f as [|f IH]; intros s; [reflexivity|].
  cbn [find_upward_f]. rewrite gloop_S. unfold fd_up at 1. unfold InvalidIndex.
  destruct (s =? tree_InvalidIndex) eqn:E; cbn [negb]; [reflexivity|].
  rewrite ObjectAt_is_translation. unfold ObjectAt_deref, rd.
  destruct (ObjectAt t s) as [p|] eqn:OA; cbn [bind lift]; [|reflexivity].
  destruct (ObjectAt_some_deref _ _ _ OA) as [-> [o D]]. cbv zeta. rewrite gderef_tr, D. cbn [bind].
  change (f_Object_firstArgIndex (tr_obj o)) with (o_first o).
  destruct (fsib_loop t expr b0 b1 b2 b3 fuel Hf He fuel false (o_first o)) as [ccs' SL]. rewrite SL.
  destruct (find_sibling fuel t (o_first o) (b0, b1, b2, b3)) as [[c|]| |]; cbn [fsib_expected bind lift]; try reflexivity.
  - destruct (deref t c) as [oc| |] eqn:Dc; [reflexivity | reflexivity | exfalso; exact (deref_not_fuel _ _ Dc)].
  - cbv iota beta. rewrite ObjectAt_is_translation, OA, gderef_tr, D.
    change (f_Object_parentIndex (tr_obj o)) with (o_parent o). apply IH.
Qed.

(** ---- the '^' loop of Find against [find_carets] ---- *)
Fixpoint find_carets_f (f : nat) (t : Tree) (scopeIndex : N) (expr : list N) : outcome N :=
  match expr with
  | [] => Ok scopeIndex
  | b :: rest =>
      if b =? 0x5e then
        do s <- ObjectAt_deref t scopeIndex;
        do par <- rd t s o_parent;
        if par =? InvalidIndex then Ok InvalidIndex else find_carets_f f t par rest
      else findRelative_go_f f false t scopeIndex expr
  end.

Lemma find_carets_f_chain : forall (t : Tree) l s, find_carets_f (chain_fuel t) t s l = find_carets t s l.
Proof.
  intros t. induction l as [|b r IH]; intros s; [reflexivity|]. cbn [find_carets_f find_carets].
  destruct (b =? 94).
  - destruct (ObjectAt_deref t s); cbn [bind]; try reflexivity.
    destruct (rd t a o_parent); cbn [bind]; try reflexivity.
    destruct (a0 =? InvalidIndex); [reflexivity|apply IH].
  - unfold findRelative. apply (findRelative_go_f_chain t (length (b :: r))). apply le_n.
Qed.

Definition fd_caret_post (x : gres ((go_aml_ObjectTree * N * N) + (go_aml_ObjectTree * N))) : gres (go_aml_ObjectTree * N) :=
  match x with
  | GPanic => GPanic | GFuel => GFuel
  | GOk (inr r) => GOk r
  | GOk (inl st) => let '(g, s, _) := st in GOk (g, s)
  end.

Lemma gslices_suffix : forall (expr : list N) k, N.of_nat (length expr) < 2 ^ 62 -> (k <= length expr)%nat ->
  gslices 64 expr (N.of_nat k) (glen expr) = Some (skipn k expr).
Proof.
  intros expr k Hs Hk. unfold gslices, gisneg, gslice, glen. change (2 ^ (64 - 1)) with (2 ^ 63).
  change (2 ^ 62) with 4611686018427387904 in *. change (2 ^ 63) with 9223372036854775808.
  replace (9223372036854775808 <=? N.of_nat k) with false by (symmetry; apply N.leb_gt; lia).
  replace (9223372036854775808 <=? N.of_nat (length expr)) with false by (symmetry; apply N.leb_gt; lia).
  cbn [orb].
  replace (N.of_nat k <=? N.of_nat (length expr)) with true by (symmetry; apply N.leb_le; lia).
  rewrite N.leb_refl. cbn [andb]. rewrite Nat2N.id. f_equal.
  apply firstn_all2. rewrite skipn_length. lia.
Qed.

Section Expr3.
Variable expr : list N.
Hypothesis expr_small : N.of_nat (length expr) < 2 ^ 62.
Variable t : Tree.
Variable fuel : nat.
Hypothesis fuel_big : (length expr + 5 < fuel)%nat.

Lemma findRelative_suffix : forall k scope, (k <= length expr)%nat ->
  go_aml_ObjectTree_findRelative fuel (tr_tree t) scope (skipn k expr) =
  lift (fun r => (tr_tree t, r)) (findRelative_go_f fuel false t scope (skipn k expr)).
Proof.
  intros k scope Hk. pose proof (skipn_length k expr) as SL.
  apply findRelative_fuelled.
  - change (2 ^ 62) with 4611686018427387904 in *. lia.
  - lia.
Qed.

Lemma caret_loop : forall n l k scope fo,
  (length l <= n)%nat -> l = skipn k expr -> (k <= length expr)%nat -> (n < fo)%nat ->
  fd_caret_post (gloop fo (fd_caret fuel expr (glen expr)) (tr_tree t, scope, N.of_nat k)) =
  lift (fun r => (tr_tree t, r)) (find_carets_f fuel t scope l).
Proof.
  induction n as [|n IH]; intros l k scope fo Hl El Hk Hfo; (destruct fo as [|fo]; [lia|]);
    rewrite gloop_S; unfold fd_caret at 1; unfold glen at 1;
    rewrite gslt_small by (apply (of_nat_small expr expr_small); lia).
  - destruct l; [|cbn in Hl; lia]. symmetry in El. apply skipn_nil_len in El.
    replace (N.of_nat k <? N.of_nat (length expr)) with false by (symmetry; apply N.ltb_ge; lia).
    reflexivity.
  - destruct l as [|b r].
    { symmetry in El. apply skipn_nil_len in El.
      replace (N.of_nat k <? N.of_nat (length expr)) with false by (symmetry; apply N.ltb_ge; lia).
      reflexivity. }
    symmetry in El. destruct (skipn_cons_nth _ _ _ _ El) as [Nb Lk].
    replace (N.of_nat k <? N.of_nat (length expr)) with true by (symmetry; apply N.ltb_lt; lia).
    rewrite gidxs_small by (apply (of_nat_small expr expr_small); lia). unfold gidx. rewrite Nat2N.id, Nb.
    cbv zeta. cbn [find_carets_f].
    destruct (b =? 94).
    + rewrite ObjectAt_is_translation. unfold ObjectAt_deref, rd.
      destruct (ObjectAt t scope) as [p|] eqn:OA; cbn [bind lift]; [|reflexivity].
      destruct (ObjectAt_some_deref _ _ _ OA) as [-> [o D]]. rewrite gderef_tr, D. cbn [bind].
      change (f_Object_parentIndex (tr_obj o)) with (o_parent o). unfold InvalidIndex.
      destruct (o_parent o =? tree_InvalidIndex); [reflexivity|].
      assert (W : gw 64 (N.of_nat k + 1) = N.of_nat (k + 1)).
      { rewrite gw64_small; [lia|]. change (2 ^ 62) with 4611686018427387904 in *. unfold two64. lia. }
      rewrite W. apply IH; cbn [length] in *; try lia.
      rewrite <- skipn_skipn', El. reflexivity.
    + rewrite gslices_suffix by (trivial; lia). rewrite El.
      rewrite <- El at 1. rewrite (findRelative_suffix k scope) by lia. rewrite El.
      destruct (findRelative_go_f fuel false t scope (b :: r)); reflexivity.
Qed.
End Expr3.

(** ---- Find ---- *)
Definition Find_f (f : nat) (t : Tree) (scopeIndex : N) (expr : list N) : outcome N :=
  match expr with
  | [] => Ok InvalidIndex
  | b0 :: rest =>
      if scopeIndex =? InvalidIndex then Ok InvalidIndex
      else if b0 =? 0x5c then
        match rest with [] => Ok 0 | _ => findRelative_go_f f false t 0 rest end
      else if b0 =? 0x5e then find_carets_f f t scopeIndex expr
      else if tree_amlNameLen <? N.of_nat (length expr) then findRelative_go_f f false t scopeIndex expr
      else match expr with
           | [b0; b1; b2; b3] => find_upward_f f f t scopeIndex (b0, b1, b2, b3)
           | _ => Ok InvalidIndex
           end
  end.

Lemma Find_f_chain : forall (t : Tree) s l, Find_f (chain_fuel t) t s l = Find t s l.
Proof.
  intros t s l. unfold Find_f, Find. destruct l as [|b0 rest]; [reflexivity|].
  destruct (s =? InvalidIndex); [reflexivity|].
  destruct (b0 =? 92).
  - destruct rest; [reflexivity|]. unfold findRelative. apply (findRelative_go_f_chain t _ _ _ _ (le_n _)).
  - destruct (b0 =? 94); [apply find_carets_f_chain|].
    destruct (tree_amlNameLen <? N.of_nat (length (b0 :: rest))).
    + unfold findRelative. apply (findRelative_go_f_chain t _ _ _ _ (le_n _)).
    + destruct rest as [|b1 [|b2 [|b3 [|b4 r]]]]; try reflexivity. apply find_upward_f_chain.
Qed.

Theorem Find_fuelled : forall (t : Tree) (scope : N) (expr : list N) (fuel : nat),
  N.of_nat (length expr) < 2 ^ 62 -> (length expr + 5 < fuel)%nat ->
  go_aml_ObjectTree_Find fuel (tr_tree t) scope expr = lift (fun r => (tr_tree t, r)) (Find_f fuel t scope expr).
Proof.
  intros t scope expr fuel Hs Hf. rewrite Find_unfold. unfold fd_main, Find_f. cbv zeta. unfold glen at 1 2 3 4 5.
  destruct expr as [|b0 rest] eqn:Ee; [reflexivity|]. rewrite <- Ee in *.
  assert (H0 : nth_error expr 0 = Some b0) by (rewrite Ee; reflexivity).
  replace (N.of_nat (length expr) =? 0) with false by (symmetry; apply N.eqb_neq; rewrite Ee; cbn [length]; lia).
  cbn [orb]. unfold InvalidIndex.
  destruct (scope =? tree_InvalidIndex); [reflexivity|].
  unfold gidx. change (N.to_nat 0) with 0%nat. rewrite !H0.
  destruct (b0 =? 92).
  - (* absolute *)
    destruct rest as [|b1 rest'].
    + rewrite Ee. reflexivity.
    + replace (N.of_nat (length expr) =? 1) with false by (symmetry; apply N.eqb_neq; rewrite Ee; cbn [length]; lia).
      assert (SL : gslice expr 1 (N.of_nat (length expr)) = Some (skipn 1 expr)).
      { pose proof (gslices_suffix expr 1 Hs) as G. unfold gslices, gisneg, glen in G. change (2 ^ (64 - 1)) with (2 ^ 63) in G.
        change (2 ^ 62) with 4611686018427387904 in *. change (2 ^ 63) with 9223372036854775808 in G.
        replace (9223372036854775808 <=? N.of_nat 1) with false in G by reflexivity.
        replace (9223372036854775808 <=? N.of_nat (length expr)) with false in G by (symmetry; apply N.leb_gt; lia).
        apply G. rewrite Ee. cbn [length]. lia. }
      rewrite SL. rewrite (findRelative_suffix expr Hs t fuel Hf 1 0) by (rewrite Ee; cbn [length]; lia).
      rewrite Ee. cbn [skipn]. destruct (findRelative_go_f fuel false t 0 (b1 :: rest')); reflexivity.
  - destruct (b0 =? 94).
    + (* ^ *)
      change (gw 64 0) with (N.of_nat 0).
      exact (caret_loop expr Hs t fuel Hf (length expr) expr 0%nat scope fuel (le_n _) eq_refl (Nat.le_0_l _) ltac:(lia)).
    + rewrite gslt_small; [ | rewrite TreeProofs.amlNameLen_is_4; reflexivity | unfold two63; change (2 ^ 62) with 4611686018427387904 in *; change (2 ^ 63) with 9223372036854775808; lia].
      destruct (tree_amlNameLen <? N.of_nat (length expr)) eqn:Lt.
      * pose proof (findRelative_suffix expr Hs t fuel Hf 0 scope (Nat.le_0_l _)) as FR. cbn [skipn] in FR.
        rewrite FR. destruct (findRelative_go_f fuel false t scope expr); reflexivity.
      * rewrite TreeProofs.amlNameLen_is_4.
        destruct rest as [|b1 [|b2 [|b3 [|b4 r]]]]; rewrite Ee at 1; cbn [length]; try reflexivity.
        -- replace (N.of_nat 4 =? 4) with true by reflexivity.
           exact (up_loop t expr b0 b1 b2 b3 fuel ltac:(lia) Ee fuel scope).
        -- exfalso. apply N.ltb_ge in Lt. rewrite Ee in Lt. cbn [length] in Lt. rewrite TreeProofs.amlNameLen_is_4 in Lt. lia.
Qed.

(** ---- more fuel does not change an answer ---- *)
Lemma find_upward_f_mono : forall (t : Tree) nm fs fs', (fs <= fs')%nat -> forall fu fu' s,
  (fu <= fu')%nat -> find_upward_f fs fu t s nm <> OutOfFuel ->
  find_upward_f fs' fu' t s nm = find_upward_f fs fu t s nm.
Proof.
  intros t nm fs fs' Hs. induction fu as [|fu IH]; intros fu' s Hle Hne; [cbn in Hne; congruence|].
  destruct fu' as [|fu']; [lia|]. cbn [find_upward_f] in *.
  destruct (s =? InvalidIndex); [reflexivity|].
  destruct (ObjectAt_deref t s); cbn [bind] in *; try reflexivity.
  destruct (rd t a o_first); cbn [bind] in *; try reflexivity.
  destruct (find_sibling fs t a0 nm) as [[c|]| |] eqn:FS; cbn [bind] in *; try congruence;
    rewrite (find_sibling_mono t nm fs fs' a0 Hs) by (rewrite FS; discriminate); rewrite FS; cbn [bind]; try reflexivity.
  destruct (rd t a o_parent); cbn [bind] in *; try reflexivity. apply IH; [lia|assumption].
Qed.

Lemma find_carets_f_mono : forall (t : Tree) f f', (f <= f')%nat -> forall l s,
  find_carets_f f t s l <> OutOfFuel -> find_carets_f f' t s l = find_carets_f f t s l.
Proof.
  intros t f f' Hle. induction l as [|b r IH]; intros s Hne; [reflexivity|]. cbn [find_carets_f] in *.
  destruct (b =? 94).
  - destruct (ObjectAt_deref t s); cbn [bind] in *; try reflexivity.
    destruct (rd t a o_parent); cbn [bind] in *; try reflexivity.
    destruct (a0 =? InvalidIndex); [reflexivity|]. apply IH. assumption.
  - apply (findRelative_go_f_mono t f f' Hle (length (b :: r))); [apply le_n|assumption].
Qed.

Lemma Find_f_mono : forall (t : Tree) f f', (f <= f')%nat -> forall l s,
  Find_f f t s l <> OutOfFuel -> Find_f f' t s l = Find_f f t s l.
Proof.
  intros t f f' Hle l s Hne. unfold Find_f in *. destruct l as [|b0 rest]; [reflexivity|].
  destruct (s =? InvalidIndex); [reflexivity|].
  destruct (b0 =? 92).
  - destruct rest; [reflexivity|]. apply (findRelative_go_f_mono t f f' Hle _ _ _ _ (le_n _)). assumption.
  - destruct (b0 =? 94); [apply find_carets_f_mono; assumption|].
    destruct (tree_amlNameLen <? N.of_nat (length (b0 :: rest))).
    + apply (findRelative_go_f_mono t f f' Hle _ _ _ _ (le_n _)). assumption.
    + destruct rest as [|b1 [|b2 [|b3 [|b4 r]]]]; try reflexivity. apply find_upward_f_mono; assumption.
Qed.

(** Find: the translation equals the model, for every fuel above the model's own [chain_fuel t] and the length of the
    expression, whenever the model's walks end (they do on every tree whose sibling / parent chains are acyclic) *)
Theorem Find_is_translation : forall (t : Tree) (scope : N) (expr : list N) (fuel : nat),
  N.of_nat (length expr) < 2 ^ 62 -> (length expr + 5 < fuel)%nat -> (chain_fuel t <= fuel)%nat ->
  Find t scope expr <> OutOfFuel ->
  go_aml_ObjectTree_Find fuel (tr_tree t) scope expr = lift (fun r => (tr_tree t, r)) (Find t scope expr).
Proof.
  intros t scope expr fuel Hs Hf Hc Hne. rewrite (Find_fuelled t scope expr fuel Hs Hf).
  rewrite <- Find_f_chain in *. now rewrite (Find_f_mono t (chain_fuel t) fuel Hc expr scope Hne).
Qed.
End G.
