(** C11 (fragment F9): passes 3 to 6 and ParseAML for the items of F9 (no Scope directives).
    Passes 3 and 4 leave the tree of connectNamedObjArgs alone, resolveMethodCalls attaches the operands of the statements
    ([rspec_all]), connectNonNamedObjArgs finds nothing left to do. *)
From Coq Require Import NArith ZArith Arith List Bool Lia.
From Coq Require Import ZifyBool ZifyN ZifyNat.
From FF Require Import Lib.Word Gen.Consts_device_acpi_aml Gen.Consts_aml_tree Aml.Stream Aml.Lex Aml.LexProofs
  Aml.Tree Aml.TreeSpec Aml.TreeProofs Aml.TreeProofsOps Aml.TreeProofsFind Aml.Parser Aml.Grammar Aml.LexRoundtrip
  Aml.ParserTotalTree Aml.ParserTotalBase
  Aml.ParserFragBase Aml.ParserFragFirst Aml.ParserFragF0 Aml.ParserFragF0Shape Aml.ParserFragConn Aml.ParserFragF0Conn Aml.ParserFragWalk
  Aml.ParserFragF0Top Aml.ParserFragRose Aml.ParserFragDev Aml.ParserFragArgs Aml.ParserFragF9 Aml.ParserFragF9First Aml.ParserFragF9Conn Aml.ParserFragF9Top
  Aml.ParserFragF9Calls.
Import ListNotations.
Local Open Scope N_scope.

(** resolveMethodCalls moves the operands of a statement below the operator: the same nodes, in the same order *)
Lemma lay5_same h tbl : forall l b off,
  rnodesl (lay5 h tbl b off l) = rnodesl (lay2 h tbl b off l) /\ rsizes (lay5 h tbl b off l) = rsizes (lay2 h tbl b off l).
Proof.
  induction l as [|d rest IH|bk k seg fa body rest IHb IH|lk seg fa ta rest IH|seg k n elems rest IH|sk ta rest IH] using items_ind; intros b off; [split; reflexivity| | | | |];
    rewrite lay5_cons, lay2_cons, !rnodesl_app, !rsizes_app, (proj1 (IH _ _)), (proj2 (IH _ _)); [split; reflexivity| |split; reflexivity|split; reflexivity|].
  - rewrite lay5_blk, lay2_blk. unfold rnodesl at 1 3. cbn [flat_map rsizes fold_right]. rewrite !rnodes_eq, !rsize_eq, !rnodesl_app, !rsizes_app.
    unfold rnodesl at 2 4. cbn [flat_map rsizes fold_right]. rewrite !rnodes_eq, !rsize_eq, (proj1 (IHb _ _)), (proj2 (IHb _ _)). split; reflexivity.
  - cbn [lay5_item lay2_item]. unfold rnodesl at 1 3. cbn [flat_map rsizes fold_right]. rewrite !rnodes_eq, !rsize_eq. cbn [rnodesl flat_map rsizes fold_right app].
    fold (rnodesl (leaf_row (b + 1) (cst_pays h tbl (off + slo sk) ta))). fold (rsizes (leaf_row (b + 1) (cst_pays h tbl (off + slo sk) ta))).
    rewrite app_nil_r. split; [reflexivity|lia].
Qed.

Lemma lay5_nodes_all h tbl l b off y : b <= y < b + N.of_nat (iszs l) -> In y (rnodesl (lay5 h tbl b off l)).
Proof. rewrite (proj1 (lay5_same h tbl l b off)). apply lay2_nodes_all. Qed.

Lemma lay5_rsizes h tbl l b off : rsizes (lay5 h tbl b off l) = iszs l.
Proof. rewrite (proj2 (lay5_same h tbl l b off)). apply lay2_rsizes. Qed.

(** ---- the final tree ---- *)
Definition root_tree5 (its : list item) : rose :=
  RN 0 (scope_pay 0 [92; 0; 0; 0]) (dflt_leaves ++ lay5 1 0 6 aml_sizeofSDTHeader its).

Lemma root_tree5_size its : rsize (root_tree5 its) = (6 + iszs its)%nat.
Proof. unfold root_tree5. rewrite rsize_eq, rsizes_app, lay5_rsizes. reflexivity. Qed.

Lemma dflt_ok5 i nm ks : f9_ok5E (RN i (mkPay opScopeBlock 113 0 nm 0 0 None) ks).
Proof. exists 0, 0. left. cbn [f1_ok]. left. eexists. reflexivity. Qed.

Lemma root_tree5_ok its : forallb item_okb its = true -> rallr f9_ok5E (root_tree5 its).
Proof.
  intros Hok. unfold root_tree5. constructor; [apply dflt_ok5|].
  apply Forall_app. split; [|apply lay5_ok5; exact Hok].
  unfold dflt_leaves. repeat (constructor; [constructor; [apply dflt_ok5|constructor]|]). constructor.
Qed.

Lemma root_tree5_nodes its y : y < 6 + N.of_nat (iszs its) -> In y (rnodes (root_tree5 its)).
Proof.
  intros Hy. unfold root_tree5. rewrite rnodes_eq, rnodesl_app.
  destruct (N.ltb_spec y 6) as [Hlt|Hge].
  - assert (Hc : y = 0 \/ y = 1 \/ y = 2 \/ y = 3 \/ y = 4 \/ y = 5) by lia.
    destruct Hc as [ -> | [ -> | [ -> | [ -> | [ -> | -> ] ] ] ] ]; cbn; tauto.
  - right. apply in_or_app. right. apply lay5_nodes_all. lia.
Qed.

(** fuel: [rfuel its] for resolveMethodCalls, 3 per object for the identity walks ([fwalk_size]), 30 for the root, the
    default scopes and the slack of [rspec_all] *)
Lemma rest_f9 its fuel s g pl :
  Rep (p_tree s) g pl -> Desc g pl (root_tree its) -> forallb item_okb its = true ->
  N.of_nat (length pl) <= 6 + N.of_nat (iszs its) ->
  p_handle s = 1 -> p_mergedScopes s = 0 -> p_relocatedObjects s = 0 -> (rfuel its + 3 * (6 + iszs its) + 30 <= fuel)%nat ->
  wp False (rest_passes fuel) s (fun b s' => b = true /\ exists g5,
    Rep (p_tree s') g5 pl /\ Desc g5 pl (root_tree5 its) /\ p_tables s' = p_tables s).
Proof.
  intros H2 HD Hok Hl2 Hh Hm Hr Hfuel. unfold rest_passes.
  destruct (Desc_inv _ _ _ _ _ HD) as (Hp0 & K0 & HDk). rewrite map_app in K0. change (map ridx dflt_leaves) with D0 in K0.
  apply Forall_app in HDk. destruct HDk as [HDd HDl].
  assert (Hl0 : y_op (scope_pay 0 [92; 0; 0; 0]) <> opFreed) by discriminate.
  assert (Hc3 : forall y a, pget pl y = Some a -> y_op a <> opFreed -> merge_ok 1 a /\ defer_ok 1 a /\ reloc_ok g pl 1 y a).
  { intros y a Hy Hly.
    destruct (f9_conds (p_tree s) g pl (root_tree its) 1 H2 HD (root_tree_ok its Hok) y a) as (A & B & C & _);
      [apply root_tree_nodes; pose proof (pget_lt _ _ _ Hy); lia|exact Hy|exact Hly|]. auto. }
  apply wp_bind. unfold wp at 1.
  set (s3 := with_counters s 1 (p_mergedScopes s) (p_relocatedObjects s)).
  assert (H3 : Rep (p_tree s3) g pl) by exact H2.
  assert (Hfw : fwalk g fuel 0) by (change 0 with (ridx (root_tree its)); apply (fwalk_size g pl _ HD); rewrite root_tree_size; lia).
  destruct fuel as [|F]; [lia|].
  apply wp_bind. rewrite resolve_loop_S.
  apply wp_bind. eapply wp_conseq.
  { apply (proj1 (merge_all g pl 1 (fun y a A B => proj1 (Hc3 y a A B)) (S F)) 0 _ s3 H3 Hh Hm Hp0 Hl0 Hfw). }
  intros r s' (-> & ->). change (pres_eqb ROk RFailed) with false. cbv iota.
  apply wp_bind. eapply wp_conseq.
  { apply (proj1 (reloc_all g pl 1 (fun y a A B => proj2 (proj2 (Hc3 y a A B))) (S F)) 0 _ s3 H3 Hh Hr Hp0 Hl0 Hfw). }
  intros r s' (-> & ->). change (pres_eqb ROk RFailed) with false. change (pres_eqb ROk ROk && pres_eqb ROk ROk) with true. cbv iota.
  apply wp_ret. change (negb (pres_eqb ROk ROk)) with false. cbv iota.
  apply wp_bind. eapply wp_conseq.
  { apply (proj1 (defer_all g pl 1 (fun y a A B => proj1 (proj2 (Hc3 y a A B))) (S F)) (S F) 0 _ s3 H3 Hh Hp0 Hl0 Hfw). }
  intros r s' (-> & ->). change (negb (pres_eqb ROk ROk)) with false. cbv iota.
  (* resolveMethodCalls: the statements get their operands *)
  apply wp_bind. rewrite resolveMethodCalls_S.
  apply wp_bind. eapply wp_objectAt_rep; [exact H3|exact Hp0|exact Hl0|].
  apply wp_bind. eapply wp_rdf_rep; [exact H3|exact Hp0|exact Hl0|]. intros o0 _ _ _ Hlast. rewrite Hlast, K0.
  eapply (rspec_all 1 0 its 0 D0 [] 6 aml_sizeofSDTHeader s3 g pl F _ (F - rfuel its)%nat);
    [exact H3|rewrite K0, app_nil_r; reflexivity|exact HDl|exact Hp0|exact Hl0|left; lia|exact Hh|exact Hok|lia|lia|].
  intros t5 g5 H5 [Q1 Q2 Q3 _]. rewrite app_nil_r in Q1.
  assert (HD0 : forall d, In d D0 -> kids g5 d = [] /\ exists a, pget pl d = Some a /\ y_op a <> opFreed /\ calls_ok g5 1 d a).
  { intros d Hd.
    assert (Hdl : exists nm, In (RN d (scope_pay 0 nm) []) dflt_leaves).
    { unfold D0 in Hd. cbn [In] in Hd. unfold dflt_leaves. destruct Hd as [ <- | [ <- | [ <- | [ <- | [ <- | [] ] ] ] ] ]; eexists; cbn [In]; eauto 10. }
    destruct Hdl as (nm & Hin). rewrite Forall_forall in HDd. destruct (Desc_inv _ _ _ _ _ (HDd _ Hin)) as (Pd & Kd & _).
    assert (Hdr : d < 6 /\ d <> 0) by (unfold D0 in Hd; cbn [In] in Hd; lia).
    assert (Kd5 : kids g5 d = []) by (rewrite Q3 by lia; exact Kd).
    split; [exact Kd5|]. exists (scope_pay 0 nm). split; [exact Pd|]. split; [discriminate|].
    assert (D1 : Desc g5 pl (RN d (scope_pay 0 nm) [])) by (constructor; [exact Pd|exact Kd5|constructor]).
    apply (f5_conds t5 g5 pl _ 1 H5 D1 (rallr_node _ _ _ _ (dflt_ok5 d _ []) (Forall_nil _)) d _); [rewrite rnodes_eq; left; reflexivity|exact Pd|discriminate]. }
  pose proof (rlen_le_rfuel its) as Hrl.
  eapply (loop_fuel_eq _ (length D0 + S (S (F - rlen its - 7)))%nat); [cbn [D0 length]; lia|].
  eapply (calls_leaves 1 D0 _ 0 (map ridx (lay5 1 0 6 aml_sizeofSDTHeader its)) _ g5 pl); [exact H5|exact Hh|exact Q1|exact HD0|].
  rewrite resolveCalls_loop_S, N.eqb_refl. apply wp_ret.
  change (negb (pres_eqb ROk ROk)) with false. cbv iota.
  (* connectNonNamedObjArgs: nothing left to do *)
  set (s5 := with_tree s3 t5).
  assert (HD5 : Desc g5 pl (root_tree5 its)).
  { unfold root_tree5. constructor; [exact Hp0|rewrite Q1, map_app; reflexivity|].
    apply Forall_app. split; [|exact Q2]. apply (Desc_frame_l g pl); [exact HDd|].
    intros y Hy. assert (Hyr : 1 <= y <= 5) by (cbn in Hy; lia). split; [apply Q3; lia|reflexivity]. }
  assert (Hc5 : forall y a, pget pl y = Some a -> y_op a <> opFreed -> nonnamed_ok g5 1 y a).
  { intros y a Hy Hly.
    apply (f5_conds t5 g5 pl (root_tree5 its) 1 H5 HD5 (root_tree5_ok its Hok) y a); [|exact Hy|exact Hly].
    apply root_tree5_nodes. pose proof (pget_lt _ _ _ Hy). lia. }
  assert (Hfwb : fwalkb g5 (S F) 0) by (change 0 with (ridx (root_tree5 its)); apply (fwalkb_size g5 pl _ HD5); rewrite root_tree5_size; lia).
  apply wp_bind. eapply wp_conseq.
  { apply (proj1 (nonnamed_all g5 pl 1 Hc5 (S F)) 0 _ s5 H5 Hh Hp0 Hl0 Hfwb). }
  intros r s' (-> & ->). change (negb (pres_eqb ROk ROk)) with false. cbv iota.
  apply wp_ret. split; [reflexivity|]. exists g5. split; [exact H5|]. split; [exact HD5|reflexivity].
Qed.

(** the fuel of resolveMethodCalls against the length of the encoding *)
Lemma rfuel_item_len : forall it, (rfuel_item it + 3 * isz it <= 8 * length (enc_item it))%nat.
Proof.
  fix IH 1. intros [d|bk k seg fa body|lk seg fa ta|seg k n elems|sk ta].
  - cbn [rfuel_item isz enc_item]. unfold enc_decl, enc_const. cbn [length]. rewrite !app_length. cbn [seg_bytes length].
    destruct (enc_op_nonempty (d_op d)) as (x & l & E). rewrite E. cbn [length]. lia.
  - rewrite rfuel_blk, isz_blk, enc_blk. rewrite !app_length. cbn [seg_bytes length].
    destruct (enc_op_nonempty (bk_op bk)) as (x0 & l0 & E). rewrite E. cbn [length].
    assert (Hb : (rfuel body + 3 * iszs body <= 8 * length (enc_items body))%nat).
    { induction body as [|x t IHt]; [cbn; lia|]. pose proof (IH x). rewrite rfuel_cons, iszs_cons, enc_items_cons, app_length. lia. }
    assert (Hk : (1 <= length (enc_pkglen k (k + lenN (seg_bytes seg ++ enc_fx (bfx bk fa) ++ enc_items body))))%nat).
    { unfold enc_pkglen. destruct (k =? 1); cbn [length]; lia. }
    pose proof (len_enc_fx (bfx bk fa)). lia.
  - cbn [rfuel_item]. rewrite isz_leaf, enc_leaf. rewrite !app_length. cbn [seg_bytes length].
    destruct (enc_op_nonempty (lk_op lk)) as (x0 & l0 & E). rewrite E. cbn [length].
    pose proof (len_enc_fx (lfx lk fa)). pose proof (len_enc_ta ta). lia.
  - cbn [rfuel_item]. rewrite isz_pkg, enc_pkg_item. cbn [length]. rewrite !app_length. cbn [seg_bytes length].
    assert (Hk : (1 <= length (enc_pkglen k (k + lenN ([n] ++ enc_pels elems))))%nat).
    { unfold enc_pkglen. destruct (k =? 1); cbn [length]; lia. }
    pose proof (enc_pels_len elems). lia.
  - cbn [rfuel_item]. rewrite isz_stmt, enc_stmt, app_length. destruct (enc_op_nonempty (sk_op sk)) as (x0 & l0 & E). rewrite E. cbn [length].
    pose proof (len_enc_ta ta). lia.
Qed.
Lemma rfuel_len l : (rfuel l + 3 * iszs l <= 8 * length (enc_items l))%nat.
Proof. induction l as [|x t IH]; [cbn; lia|]. pose proof (rfuel_item_len x). rewrite rfuel_cons, iszs_cons, enc_items_cons, app_length. lia. Qed.

(** ---- ParseAML ---- *)

Theorem parse_f9x its t0 :
  forallb item_okb its = true -> lenN (enc_items its) < 0x10000000 -> Rep t0 g0c pl0c ->
  exists s' gF plF,
    parseAML t0 [] 1 (table_image (enc_items its)) = Ok (true, s') /\
    Rep (p_tree s') gF plF /\ Desc gF plF (root_tree5 its) /\ p_tables s' = [table_image (enc_items its)] /\
    N.of_nat (length plF) <= 6 + N.of_nat (iszs its).
Proof.
  intros Hok Hsz H0.
  destruct (enc_items_len its) as (Hcf & Hsz' & Hcn).
  rewrite table_image_hdr. set (hdr := hdr_of (enc_items its)). set (data := hdr ++ enc_items its).
  assert (Hhdr : lenN hdr = aml_sizeofSDTHeader) by apply lenN_hdr_of.
  assert (HlenD : lenN data = aml_sizeofSDTHeader + lenN (enc_items its)) by (unfold data; rewrite lenN_app, Hhdr; reflexivity).
  assert (Hpool : length (t_pool t0) = 6%nat) by (rewrite <- (rep_len_pool _ _ _ H0); reflexivity).
  unfold parseAML. rewrite Hpool.
  set (fuel := parse_fuel (length data + 6)).
  assert (Hfuel : (400 + 8 * length (enc_items its) <= fuel)%nat).
  { unfold fuel, parse_fuel. unfold lenN in *. change aml_sizeofSDTHeader with 36 in HlenD. lia. }
  clearbody fuel.
  assert (Hgoal : wp False (parseAML_body fuel) (init_state t0 [] 1 data) (fun b s' => b = true /\
            exists gF plF, Rep (p_tree s') gF plF /\ Desc gF plF (root_tree5 its) /\ p_tables s' = [data] /\ N.of_nat (length plF) <= 6 + N.of_nat (iszs its))).
  2:{ destruct (wp_run _ _ _ Hgoal) as (b & s' & E & -> & gF & plF & A & B & C & D). exists s', gF, plF. auto. }
  apply (wp_eqm _ _ _ _ _ (parseAML_body_eq fuel _)).
  (* the first pass *)
  apply wp_bind. eapply wp_conseq.
  { eapply (first_f1 its fuel t0 g0c pl0c 1 hdr (scope_pay 0 [92; 0; 0; 0])); [exact Hhdr| | |exact H0|reflexivity| |reflexivity|discriminate|exact Hok|lia].
    - apply Forall_app. split; [apply hdr_bytes|apply enc_items_bytes; exact Hok].
    - fold data. rewrite HlenD. unfold two32. change aml_sizeofSDTHeader with 36. lia.
    - cbn [pl0c map length tree_defaultScopeNames]. change InvalidIndex with 0xffffffff. unfold lenN in *. lia. }
  intros res s1 (-> & t1 & g1 & pl1 & -> & H1 & P1). fold data in H1, P1 |- *.
  change (pres_eqb ROk RFailed) with false. cbv iota. change (N.of_nat (length pl0c)) with 6 in P1.
  (* connectNamedObjArgs *)
  apply wp_bind. eapply wp_conseq.
  { apply (pass2_f1 its fuel t1 g1 pl1 hdr Hok Hhdr H1 P1). lia. }
  intros r s2 (-> & t2 & g2 & pl2 & -> & H2 & D2 & Hl2).
  change (negb (pres_eqb ROk ROk)) with false. cbv iota.
  (* the remaining passes *)
  eapply wp_conseq.
  { apply (rest_f9 its fuel (with_tree (after_first t1 [] 1 data) t2) g2 pl2 H2 D2 Hok Hl2); [reflexivity|reflexivity|reflexivity|].
    pose proof (rfuel_len its). lia. }
  intros b s3 (-> & g5 & H5 & D5 & Etb). split; [reflexivity|]. exists g5, pl2. rewrite Etb. split; [exact H5|]. split; [exact D5|split; [reflexivity|exact Hl2]].
Qed.
