(** C11 (fragment TN): the recogniser [in_fragment_TN] of programs of ANY NUMBER of tables (at least one), and
    [parse_encode_TN], the instance of [parse_encode_many] (ParserFragF3Final.v) for the items of F7.

    The fragment: every table is a table of F7 (Name with integer / string / package-of-constants value, Device,
    ThermalZone, Processor, PowerResource, Method with declaration-only body, Mutex, Event, OperationRegion with
    constant arguments, nested to any depth; at the top level of a table also Scope(\SEG) / Scope(SEG) directives over the
    predefined scopes); all tables but the LAST one are without Scope directives (a merged Scope directive leaves three
    freed pool slots behind, which the next table would reuse: the layout of later tables is then no longer contiguous);
    6 + the sum of the encoded table lengths is below 2^28.
    Table number i (from 1) is parsed with handle i into the tree the earlier ones left: its first pass appends to the
    pool and to the root, all later passes walk the objects of the earlier tables as well and leave them alone (other
    table handle), and the namespace is the union of all tables.  Subsumes F7, T2 and T2F7. *)
From Coq Require Import NArith List Bool.
From FF Require Import Aml.Grammar Aml.WfProgram Aml.ParserFragF0 Aml.ParserFragArgs Aml.ParserFragF1
  Aml.ParserFragF1Final Aml.ParserFragScope Aml.ParserFragF3Final Aml.ParserFragF7Final Aml.ParserFragTNTop.
Import ListNotations.
Local Open Scope N_scope.

Fixpoint f7_tables (l : list (list ast)) : option (list (list titem)) :=
  match l with
  | [] => Some []
  | p :: r => match f7_titems p, f7_tables r with Some ts, Some tss => Some (ts :: tss) | _, _ => None end
  end.

Definition in_fragment_TN (tables : list (list ast)) : bool :=
  match tables with
  | [] => false
  | _ => match f7_tables tables with
         | Some tss => forallb noscope (removelast tss) && (6 + lenN (flat_map encode_table tables) <? 0x10000000)
         | None => false
         end
  end.

Theorem parse_encode_TN : forall tables,
  wf_program tables = true -> in_fragment_TN tables = true -> parse_encode_statement tables.
Proof. exact (parse_encode_many f7_item f7_item_ast). Qed.
