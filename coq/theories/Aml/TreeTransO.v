(** pOpcodeTableIndex (parser_opcode_table.go) by translation, and the ties of newObject / newNamedObject /
    CreateDefaultScopes with the oracle for that callee replaced by the TRANSLATED function.  Continuation of Aml/TreeTrans.v.

    gen/gotrans translates pOpcodeTableIndex as a function over the synthetic record [go_aml_world] (an empty trace: the
    function makes no seam calls); the two [256]uint8 lookup arrays and len(pOpcodeTable) are the regenerated constants
    tree_opcodeMap / tree_extendedOpcodeMap / tree_opcodeTableLen of Gen/Consts_aml_tree.v (config "exttables"). *)
From Coq Require Import NArith PeanoNat List Bool Lia.
From FF Require Import Lib.Word Lib.GoOps Lib.GoOpsExt Lib.GoPool Gen.Consts_aml_tree Gen.Trans_aml_tree Aml.Stream Aml.Tree
                       Aml.TreeTrans Aml.TreeTransQ.
Import ListNotations.
Local Open Scope N_scope.

(** the index of an internal opcode, [uint8(len(pOpcodeTable) + int(opcode) - 0x1fe)]: Go computes the sum in 64-bit int
    arithmetic, where the subtraction may wrap; only the low byte is kept, and 2^64 - 0x1fe = 2 modulo 256 *)
Lemma internal_index : forall len opc, len < 2 ^ 16 -> opc < 2 ^ 16 ->
  gw 8 (gsub 64 (gw 64 (len + gw 64 opc)) 0x1fe) = w8 (len + opc + (0x200 - 0x1fe)).
Proof.
  intros len opc Hl Ho. unfold gsub, gw, w8. change two8 with 256. change (2 ^ 8) with 256.
  change (2 ^ 16) with 65536 in *. change (0x200 - 0x1fe) with 2.
  assert (EW : 2 ^ 64 = 512 + (2 ^ 56 - 2) * 256) by reflexivity.
  assert (BW : 131072 < 2 ^ 64) by reflexivity.
  generalize dependent (2 ^ 64); intros W EW BW. generalize dependent (2 ^ 56 - 2); intros k EW.
  rewrite (N.mod_small opc W), (N.mod_small (len + opc) W), (N.mod_small 510 W) by lia.
  destruct (N.le_gt_cases 510 (len + opc)).
  - replace (len + opc + W - 510) with (len + opc - 510 + 1 * W) by lia.
    rewrite N.mod_add, (N.mod_small _ W) by lia.
    replace (len + opc + 2) with (len + opc - 510 + 2 * 256) by lia. now rewrite N.mod_add.
  - rewrite (N.mod_small _ W) by lia.
    replace (len + opc + W - 510) with (len + opc + 2 + k * 256) by lia. now rewrite N.mod_add.
Qed.

Theorem pOpcodeTableIndex_is_translation : forall (w : go_aml_world) (opcode : N) (b : bool),
  opcode < 2 ^ 16 ->
  go_aml_pOpcodeTableIndex w opcode b = lift (fun v => (w, v)) (pOpcodeTableIndex opcode b).
Proof.
  intros w opcode b Ho. unfold go_aml_pOpcodeTableIndex, pOpcodeTableIndex, gidx.
  destruct (N.leb_spec opcode 255) as [le|gt].
  - destruct (nth_error tree_opcodeMap (N.to_nat opcode)); reflexivity.
  - rewrite gsub_small by (assumption || lia).
    destruct (nth_error tree_extendedOpcodeMap (N.to_nat (opcode - 255))) as [index|]; [|reflexivity].
    cbv zeta.
    destruct ((index =? tree_badOpcode) && b); cbn [lift]; [|reflexivity].
    do 2 f_equal. now apply internal_index.
Qed.

(** the translated pOpcodeTableIndex as the callee of the translated newObject *)
Definition trans_oracle (w : go_aml_world) (opc : N) (b : bool) : option N :=
  match go_aml_pOpcodeTableIndex w opc b with GOk (_, v) => Some v | _ => None end.

Lemma trans_oracle_eq : forall w opc b, opc < 2 ^ 16 -> trans_oracle w opc b = table_oracle opc b.
Proof.
  intros w opc b H. unfold trans_oracle, table_oracle. rewrite pOpcodeTableIndex_is_translation by assumption.
  destruct (pOpcodeTableIndex opc b); reflexivity.
Qed.

Section WithValue.
Context {V : Type}.
Notation Tree := (ObjectTree V).

(** the translated newObject applies its oracle to (opcode, true) only *)
Lemma newObject_oracle_ext : forall (g : @go_aml_ObjectTree V) opc th o1 o2,
  o1 opc true = o2 opc true ->
  go_aml_ObjectTree_newObject g opc th o1 = go_aml_ObjectTree_newObject g opc th o2.
Proof. intros g opc th o1 o2 H. unfold go_aml_ObjectTree_newObject. rewrite H. reflexivity. Qed.

Lemma newNamedObject_oracle_ext : forall (g : @go_aml_ObjectTree V) opc th nm o1 o2,
  o1 opc true = o2 opc true ->
  go_aml_ObjectTree_newNamedObject g opc th nm o1 = go_aml_ObjectTree_newNamedObject g opc th nm o2.
Proof.
  intros g opc th nm o1 o2 H. unfold go_aml_ObjectTree_newNamedObject.
  rewrite (newObject_oracle_ext g opc th o1 o2 H). reflexivity.
Qed.

Theorem newObject_is_translation_closed : forall (w : go_aml_world) (t : Tree) (opcode th : N),
  opcode < 2 ^ 16 ->
  go_aml_ObjectTree_newObject (tr_tree t) opcode th (trans_oracle w) =
  lift (fun '(t', p) => (tr_tree t', Some p)) (newObject t opcode th).
Proof.
  intros w t opcode th H. rewrite <- newObject_is_translation.
  apply newObject_oracle_ext. now apply trans_oracle_eq.
Qed.

Theorem newNamedObject_is_translation_closed : forall (w : go_aml_world) (t : Tree) (opcode th : N) (nm : Name),
  opcode < 2 ^ 16 ->
  go_aml_ObjectTree_newNamedObject (tr_tree t) opcode th (name_bytes nm) (trans_oracle w) =
  lift (fun '(t', p) => (tr_tree t', Some p)) (newNamedObject t opcode th nm).
Proof.
  intros w t opcode th nm H. rewrite <- newNamedObject_is_translation.
  apply newNamedObject_oracle_ext. now apply trans_oracle_eq.
Qed.

Theorem CreateDefaultScopes_is_translation_closed : forall (w : go_aml_world) (t : Tree) (th : N),
  go_aml_ObjectTree_CreateDefaultScopes (tr_tree t) th (trans_oracle w) =
  lift (fun t' => (tr_tree t', tt)) (CreateDefaultScopes t th).
Proof.
  intros w t th. apply CreateDefaultScopes_sim. intros ? ? ? ->. now apply newNamedObject_is_translation_closed.
Qed.
End WithValue.
