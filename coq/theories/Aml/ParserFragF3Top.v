(** C11 (tables with Scope directives over the predefined scopes): mergeScopeDirectives on the whole tree, the final tree,
    and passes 3 to 6. *)
From Coq Require Import NArith ZArith Arith List Bool Lia.
From Coq Require Import ZifyBool ZifyN ZifyNat.
From FF Require Import Lib.Word Gen.Consts_device_acpi_aml Gen.Consts_aml_tree Aml.Stream Aml.Lex Aml.LexProofs
  Aml.Tree Aml.TreeSpec Aml.TreeProofs Aml.TreeProofsOps Aml.TreeProofsFind Aml.Parser Aml.Grammar Aml.LexRoundtrip
  Aml.ParserTotalTree Aml.ParserTotalBase
  Aml.ParserFragBase Aml.ParserFragFirst Aml.ParserFragF0 Aml.ParserFragConn Aml.ParserFragF0Conn Aml.ParserFragWalk
  Aml.ParserFragF0Top Aml.ParserFragRose Aml.ParserFragDev Aml.ParserFragF1 Aml.ParserFragF1First Aml.ParserFragF1Conn Aml.ParserFragF1Top
  Aml.ParserFragMerge Aml.ParserFragScope Aml.ParserFragScope2 Aml.ParserFragScope3.
Import ListNotations.
Local Open Scope N_scope.

(** ---- sizes and bytes ---- *)
Lemma enc_titems_len l : (tcfuel l <= 3 * length (enc_titems l))%nat /\ (tszs l <= length (enc_titems l))%nat /\ (tcnts l <= length (enc_titems l))%nat /\
  (length l <= length (enc_titems l))%nat.
Proof.
  induction l as [|x t IHt]; [cbn; lia|]. destruct IHt as (A' & B' & C' & D').
  cbn [tcfuel tszs tcnts fold_right length]. fold (tcfuel t) (tszs t) (tcnts t). rewrite enc_titems_cons, app_length.
  destruct x as [it|k root d body]; cbn [tcfuel_item tsz tcnt enc_titem].
  - destruct (enc_item_len it) as (A & B & C). pose proof (isz_pos it). lia.
  - destruct (enc_items_len body) as (A & B & C). unfold sc_body. rewrite !app_length. change (length (enc_op OP_SCOPE)) with 1%nat.
    assert (Hn : (4 <= length (enc_name (sc_name root (dseg d))))%nat).
    { pose proof (lenN_sc_name root (dseg d)) as E. unfold lenN, sc_len in E. destruct root; lia. }
    assert (Hk : (1 <= length (enc_pkglen k (k + lenN (enc_name (sc_name root (dseg d)) ++ enc_items body))))%nat).
    { unfold enc_pkglen. destruct (k =? 1); cbn [length]; lia. }
    lia.
Qed.

Lemma enc_titems_bytes : forall l, forallb titem_okb l = true -> Forall (fun b => b < 256) (enc_titems l).
Proof.
  induction l as [|x t IH]; intros Hok; [constructor|]. cbn [forallb] in Hok. apply andb_prop in Hok. destruct Hok as [Hx Hok].
  rewrite enc_titems_cons. apply Forall_app. split; [|apply IH; exact Hok].
  destruct x as [it|k root d body]; cbn [titem_okb enc_titem] in *.
  - assert (E : enc_item it = enc_items [it]) by (cbn [enc_items flat_map]; rewrite app_nil_r; reflexivity). rewrite E.
    apply enc_items_bytes. cbn [forallb]. rewrite Hx. reflexivity.
  - apply andb_prop in Hx. destruct Hx as [Hx Hbody]. apply andb_prop in Hx. destruct Hx as [Hx Hpk]. apply pkglen_okb_adm in Hpk.
    apply Forall_app. split; [repeat constructor|]. apply Forall_app. split; [apply enc_pkglen_bytes; exact Hpk|].
    unfold sc_body. apply Forall_app. split; [|apply enc_items_bytes; exact Hbody].
    rewrite enc_sc_name. apply Forall_app. split; [destruct root; repeat constructor|apply seg_bytes_lt].
Qed.

(** ---- mergeScopeDirectives on the whole tree ---- *)
Lemma dpay_merge_ok H0 d : merge_ok H0 (dpay d).
Proof. do 3 eexists. split; [reflexivity|right; reflexivity]. Qed.

(** the trees of earlier tables hold no Scope directive of this table *)
Lemma merge_forest g pl h (KT : list rose) : Forall (Desc g pl) KT -> Forall (rallr f1_okE) KT -> (forall y, In y (rnodesl KT) -> y <> 0) ->
  forall K1 K2 l1 l2 f s res (Q : pres -> pstate -> Prop), KT = K1 ++ K2 ->
  Rep (p_tree s) g pl -> p_handle s = h -> kids g 0 = l1 ++ map ridx K2 ++ l2 -> (3 * rsizes KT + length K2 <= f)%nat ->
  wp False (mergeScope_loop (f - length K2) (hd InvalidIndex l2) res) s Q ->
  wp False (mergeScope_loop f (hd InvalidIndex (map ridx K2 ++ l2)) res) s Q.
Proof.
  intros HD HO Hnz K1 K2. revert K1. induction K2 as [|c r IH]; intros K1 l1 l2 f s res Q EK H Hh Hk Hf K.
  - cbn [map app length] in *. rewrite Nat.sub_0_r in K. exact K.
  - cbn [map app length hd] in *. destruct f as [|f1]; [lia|].
    assert (Hc : In c KT) by (rewrite EK; apply in_or_app; right; left; reflexivity).
    assert (Dc : Desc g pl c) by (rewrite Forall_forall in HD; apply HD; exact Hc).
    assert (Hsz : (rsize c <= rsizes KT)%nat).
    { rewrite EK, rsizes_app. cbn [rsizes fold_right]. clear; lia. }
    eapply (merge_step g pl h (fun y => In y (rnodesl KT)) f1 0 l1 (ridx c) (map ridx r ++ l2) res s).
    + refine (proj1 (mergeS_all g pl h (fun y => In y (rnodesl KT)) _ _ _ f1)).
      * intros y c' Hy Hc'. apply (forest_kids_in g pl KT HD y c' Hy Hc').
      * exact Hnz.
      * intros y a Hy Ha _. destruct (forest_lookup g pl KT HD HO y Hy) as (a2 & ks2 & D2 & O2).
        destruct (Desc_inv _ _ _ _ _ D2) as (P2 & _ & _). assert (a2 = a) by congruence. subst a2. exact (merge_ok_f1 h _ _ _ O2).
    + exact H.
    + exact Hh.
    + exact Hk.
    + unfold rnodesl. apply in_flat_map. exists c. split; [exact Hc|]. destruct c. rewrite rnodes_eq. left. reflexivity.
    + apply (fwalk_size g pl c Dc). clear -Hsz Hf; lia.
    + apply (IH (K1 ++ [c]) (l1 ++ [ridx c]) l2 f1 s res Q); [rewrite EK, <- app_assoc; reflexivity|exact H|exact Hh|rewrite Hk, <- app_assoc; reflexivity|clear -Hf; lia|].
      replace (f1 - length r)%nat with (S f1 - S (length r))%nat by (clear; lia). exact K.
Qed.

(** the fuel: three units per object and one per tree, for the earlier tables ([merge_forest]) and for the items ([mspec_all]);
    the 40 covers the five predefined scopes and [MSpec]'s R and is not tight *)
Lemma merge_rootG h tbl tbls data (Hnth : nth_error tbls (N.to_nat tbl) = Some data) ts KT0 b dpre dpost f s g pl :
  Rep (p_tree s) g pl -> MInv h tbl g pl KT0 (fun _ => []) b (lenN dpre) ts ->
  p_handle s = h -> p_tables s = tbls -> data = dpre ++ enc_titems ts ++ dpost -> forallb titem_okb ts = true ->
  (3 * rsizes KT0 + length KT0 + 3 * tszs ts + length ts + 40 <= f)%nat ->
  wp False (mergeScopeDirectives f 0) s (fun r s' => r = ROk /\ exists g' pl',
     Rep (p_tree s') g' pl' /\ p_handle s' = h /\ p_tables s' = tbls /\ p_relocatedObjects s' = p_relocatedObjects s /\
     MInv h tbl g' pl' (KT0 ++ keep h tbl b (lenN dpre) ts) (moved h tbl b (lenN dpre) ts) (b + N.of_nat (tszs ts)) (lenN dpre + lenN (enc_titems ts)) []).
Proof.
  intros H I Hh Htb Hdata Hok Hf.
  pose proof I as [I1 I2 I3 I4 I5 I6 I7 I8 I9 I10 I11 I12 I13].
  assert (Hp0 : pget pl 0 = Some (dpay 0)) by (apply I2; clear; lia).
  destruct f as [|f0]; [clear -Hf; lia|]. rewrite mergeScopeDirectives_S.
  apply wp_bind. eapply wp_objectAt_rep; [exact H|exact Hp0|discriminate|].
  apply wp_bind. eapply wp_rdf_rep; [exact H|exact Hp0|discriminate|]. intros o _ _ Hfirst _. rewrite Hfirst, I1. cbn [D0' app hd].
  apply wp_bind. change (0 =? 0) with true. cbv iota. unfold wp at 1.
  set (s0 := with_counters s (p_resolvePasses s) 0 (p_relocatedObjects s)).
  assert (H0 : Rep (p_tree s0) g pl) by exact H.
  apply wp_bind. eapply wp_rdo_rep; [exact H0|exact Hp0|discriminate|]. intros oo Hpay _ _ _.
  rewrite (pay_info _ _ Hpay). apply wp_bind. eapply (wp_info False 113); [reflexivity|]. cbv beta iota.
  change (hasFlag 0 aml_pOpFlagExecutable) with false. cbv iota.
  apply wp_bind, wp_get. rewrite (pay_op _ _ Hpay). change (y_op (dpay 0) =? aml_pOpScope) with false. cbn [andb].
  apply wp_bind, wp_ret. cbv iota.
  (* the five predefined scopes *)
  assert (HMW : forall n, MWs g pl h (fun y => 1 <= y <= 5) n).
  { intros n. refine (proj1 (mergeS_all g pl h (fun y => 1 <= y <= 5) _ _ _ n)).
    - intros y c Hy Hc. rewrite (I3 y Hy) in Hc. destruct Hc.
    - intros y Hy. clear -Hy; lia.
    - intros y a Hy Ha _. rewrite (I2 y) in Ha by (clear -Hy; lia). inversion Ha. apply dpay_merge_ok. }
  assert (Hfw : forall d n, 1 <= d <= 5 -> (3 <= n)%nat -> fwalk g n d).
  { intros d n Hd Hn. apply (fwalk_size g pl (RN d (dpay d) [])); [apply leaf_desc; [apply I2; clear -Hd; lia|apply (I3 d Hd)]|cbn; clear -Hn; lia]. }
  set (rest0 := map ridx KT0 ++ map ridx (tlay2 h tbl b (lenN dpre) ts)) in *.
  destruct f0 as [|f1]; [clear -Hf; lia|]. eapply (merge_step g pl h (fun y => 1 <= y <= 5) f1 0 [] 1 _ ROk s0); [apply HMW|exact H0|exact Hh|rewrite I1; reflexivity|cbv beta; clear; lia|apply Hfw; clear -Hf; lia|]. cbn [hd].
  destruct f1 as [|f2]; [clear -Hf; lia|]. eapply (merge_step g pl h (fun y => 1 <= y <= 5) f2 0 [1] 2 _ ROk s0); [apply HMW|exact H0|exact Hh|rewrite I1; reflexivity|cbv beta; clear; lia|apply Hfw; clear -Hf; lia|]. cbn [hd].
  destruct f2 as [|f3]; [clear -Hf; lia|]. eapply (merge_step g pl h (fun y => 1 <= y <= 5) f3 0 [1; 2] 3 _ ROk s0); [apply HMW|exact H0|exact Hh|rewrite I1; reflexivity|cbv beta; clear; lia|apply Hfw; clear -Hf; lia|]. cbn [hd].
  destruct f3 as [|f4]; [clear -Hf; lia|]. eapply (merge_step g pl h (fun y => 1 <= y <= 5) f4 0 [1; 2; 3] 4 _ ROk s0); [apply HMW|exact H0|exact Hh|rewrite I1; reflexivity|cbv beta; clear; lia|apply Hfw; clear -Hf; lia|]. cbn [hd].
  destruct f4 as [|f5]; [clear -Hf; lia|]. eapply (merge_step g pl h (fun y => 1 <= y <= 5) f5 0 [1; 2; 3; 4] 5 _ ROk s0); [apply HMW|exact H0|exact Hh|rewrite I1; reflexivity|cbv beta; clear; lia|apply Hfw; clear -Hf; lia|]. cbn [hd].
  (* the trees of the earlier tables *)
  unfold rest0.
  eapply (merge_forest g pl h KT0 I5 I7 (fun y Hy => ltac:(pose proof (I9 y Hy); clear -H1; lia)) [] KT0 D0' _ f5 s0 ROk);
    [reflexivity|exact H0|exact Hh|rewrite I1; reflexivity|clear -Hf; lia|].
  eapply (mspec_all h tbl tbls data Hnth ts KT0 (fun _ => []) b (lenN dpre) s0 g pl _ 4%nat dpre dpost);
    [exact H0|exact I|exact Hh|exact Htb|exact Hdata|reflexivity|exact Hok|clear; lia|clear -Hf; lia|].
  intros t' g' pl' m' H' I'.
  destruct (f5 - length KT0 - length ts)%nat as [|f6] eqn:Ef; [clear -Ef Hf; lia|]. rewrite mergeScope_loop_S. rewrite N.eqb_refl. apply wp_ret.
  split; [reflexivity|]. exists g', pl'. split; [exact H'|]. split; [exact Hh|]. split; [exact Htb|]. split; [reflexivity|]. exact I'.
Qed.

Lemma keep_moved_size h tbl : forall ts b off,
  (rsizes (keep h tbl b off ts) + (rsizes (moved h tbl b off ts 1) + rsizes (moved h tbl b off ts 2) + rsizes (moved h tbl b off ts 3) + rsizes (moved h tbl b off ts 4) + rsizes (moved h tbl b off ts 5)) <= tszs ts)%nat.
Proof.
  induction ts as [|x t IH]; intros b off; [cbn; lia|].
  specialize (IH (b + N.of_nat (tsz x)) (off + lenN (enc_titem x))).
  cbn [keep moved]. rewrite !rsizes_app, tszs_cons. destruct x as [it|k root d body]; cbn [tsz].
  - assert (E : rsizes (lay2_item h tbl b off it) = isz it).
    { pose proof (lay2_rsizes h tbl [it] b off) as E. rewrite lay2_single in E. cbn [iszs fold_right] in E. lia. }
    rewrite E. cbn [rsizes fold_right tsz] in *. lia.
  - pose proof (lay2_rsizes h tbl body (b + 3) (off + 1 + k + sc_len root)) as E.
    destruct (N.eqb_spec d 1) as [->|_]; [|destruct (N.eqb_spec d 2) as [->|_]; [|destruct (N.eqb_spec d 3) as [->|_];
      [|destruct (N.eqb_spec d 4) as [->|_]; [|destruct (N.eqb_spec d 5) as [->|_]]]]];
      cbn [N.eqb Pos.eqb app rsizes fold_right tsz] in *; lia.
Qed.

Definition root_treeG (KT : list rose) (M : N -> list rose) : rose :=
  RN 0 (dpay 0) (map (fun d => RN d (dpay d) (M d)) D0' ++ KT).

Lemma root_treeG_facts h tbl g pl KT M B off :
  MInv h tbl g pl KT M B off [] ->
  Desc g pl (root_treeG KT M) /\ rallr f1_okE (root_treeG KT M) /\
  (forall y a, pget pl y = Some a -> y_op a <> opFreed -> In y (rnodes (root_treeG KT M))).
Proof.
  intros [I1 I2 I3 I4 I5 I6 I7 I8 I9 I10 I11 I12 I13]. cbn [tlay2 map] in I1. rewrite app_nil_r in I1.
  assert (HD5 : forall d, 1 <= d <= 5 -> Desc g pl (RN d (dpay d) (M d))).
  { intros d Hd. constructor; [apply I2; lia|apply I3; exact Hd|apply I6; exact Hd]. }
  assert (HO5 : forall d, 1 <= d <= 5 -> rallr f1_okE (RN d (dpay d) (M d))).
  { intros d Hd. constructor; [apply dflt_okE|apply I8; exact Hd]. }
  split; [|split].
  - unfold root_treeG. constructor; [apply I2; lia|rewrite I1, map_app; reflexivity|].
    apply Forall_app. split; [|exact I5]. cbn [D0' map]. repeat (constructor; [apply HD5; lia|]). constructor.
  - unfold root_treeG. constructor; [apply dflt_okE|].
    apply Forall_app. split; [|exact I7]. cbn [D0' map]. repeat (constructor; [apply HO5; lia|]). constructor.
  - intros y a Hy Hl. unfold root_treeG. rewrite rnodes_eq, rnodesl_app.
    assert (Hleaf : forall d, 1 <= d <= 5 -> In y (rnodesl (M d)) ->
              In y (rnodesl (map (fun d => RN d (dpay d) (M d)) D0'))).
    { intros d Hd Hin. unfold rnodesl at 1. apply in_flat_map. exists (RN d (dpay d) (M d)). split.
      - apply in_map_iff. exists d. split; [reflexivity|]. unfold D0'. cbn [In]. clear -Hd; lia.
      - rewrite rnodes_eq. right. exact Hin. }
    destruct (N.ltb_spec y 6) as [Hlt|Hge].
    + destruct (N.eqb_spec y 0) as [->|Hy0]; [left; reflexivity|]. right. apply in_or_app. left.
      unfold rnodesl. apply in_flat_map. exists (RN y (dpay y) (M y)). split.
      * apply in_map_iff. exists y. split; [reflexivity|]. unfold D0'. cbn [In]. clear -Hy0 Hlt; lia.
      * rewrite rnodes_eq. left. reflexivity.
    + destruct (N.ltb_spec y B) as [HltB|HgeB].
      * destruct (I12 y a ltac:(clear -HltB Hge; lia) Hy Hl) as [A|(d & Hd & A)]; right; apply in_or_app; [right; exact A|left; apply (Hleaf d Hd A)].
      * rewrite I13 in Hy by (cbn [tszs fold_right]; clear -HgeB; lia). discriminate.
Qed.

(** ---- passes 3 to 6, the merge being given ---- *)
Lemma rest_generic2 fuel s (H0 : N) (P : ghost -> list pay -> Prop) :
  (forall t g pl, Rep t g pl -> P g pl -> exists R0 a0, Desc g pl R0 /\ ridx R0 = 0 /\ pget pl 0 = Some a0 /\ y_op a0 <> opFreed /\
     (forall y a, pget pl y = Some a -> y_op a <> opFreed ->
        merge_ok H0 a /\ defer_ok H0 a /\ reloc_ok g pl H0 y a /\ nonnamed_ok g H0 y a /\ calls_ok g H0 y a) /\
     (3 * rsize R0 + 1 <= fuel)%nat) ->
  wp False (mergeScopeDirectives fuel 0) (with_counters s 1 (p_mergedScopes s) (p_relocatedObjects s)) (fun r s' => r = ROk /\
     exists g pl, Rep (p_tree s') g pl /\ P g pl /\ p_handle s' = H0 /\ p_tables s' = p_tables s /\ p_relocatedObjects s' = 0) ->
  wp False (rest_passes fuel) s (fun b s' => b = true /\ exists g pl, Rep (p_tree s') g pl /\ P g pl /\ p_tables s' = p_tables s).
Proof.
  intros HP Hmerge. unfold rest_passes.
  apply wp_bind. unfold wp at 1.
  destruct fuel as [|F]. { unfold wp in Hmerge. cbn in Hmerge. contradiction. }
  apply wp_bind. rewrite resolve_loop_S.
  apply wp_bind. eapply wp_conseq; [exact Hmerge|].
  intros r s3 (-> & g & pl & H3 & HPg & Hh & Htb & Hr3). change (pres_eqb ROk RFailed) with false. cbv iota.
  destruct (HP _ g pl H3 HPg) as (R0 & a0 & HD & Hr0 & Hp0' & Hl0 & Hc & Hfuel).
  assert (Hfw : fwalk g (S F) 0) by (rewrite <- Hr0; apply (fwalk_size g pl R0 HD); lia).
  assert (Hfwb : fwalkb g (S F) 0) by (rewrite <- Hr0; apply (fwalkb_size g pl R0 HD); lia).
  apply wp_bind. eapply wp_conseq.
  { apply (proj1 (reloc_all g pl H0 (fun y a A B => proj1 (proj2 (proj2 (Hc y a A B)))) (S F)) 0 _ s3 H3 Hh Hr3 Hp0' Hl0 Hfw). }
  intros r s' (-> & ->). change (pres_eqb ROk RFailed) with false. change (pres_eqb ROk ROk && pres_eqb ROk ROk) with true. cbv iota.
  apply wp_ret. change (negb (pres_eqb ROk ROk)) with false. cbv iota.
  apply wp_bind. eapply wp_conseq.
  { apply (proj1 (defer_all g pl H0 (fun y a A B => proj1 (proj2 (Hc y a A B))) (S F)) (S F) 0 _ s3 H3 Hh Hp0' Hl0 Hfw). }
  intros r s' (-> & ->). change (negb (pres_eqb ROk ROk)) with false. cbv iota.
  apply wp_bind. eapply wp_conseq.
  { apply (proj1 (calls_all g pl H0 (fun y a A B => proj2 (proj2 (proj2 (proj2 (Hc y a A B))))) (S F)) 0 _ s3 H3 Hh Hp0' Hl0 Hfwb). }
  intros r s' (-> & ->). change (negb (pres_eqb ROk ROk)) with false. cbv iota.
  apply wp_bind. eapply wp_conseq.
  { apply (proj1 (nonnamed_all g pl H0 (fun y a A B => proj1 (proj2 (proj2 (proj2 (Hc y a A B))))) (S F)) 0 _ s3 H3 Hh Hp0' Hl0 Hfwb). }
  intros r s' (-> & ->). change (negb (pres_eqb ROk ROk)) with false. cbv iota.
  apply wp_ret. split; [reflexivity|]. exists g, pl. split; [exact H3|]. split; [exact HPg|exact Htb].
Qed.

