(** connectNamedObjArgs keeps the shape facts the later passes need ([SH]: root facts, the Scope-directive
    shape, TM2, PEND; [SH3]: with TM3), so that everything after the first pass is chained ([rest2_post]). *)
From Coq Require Import NArith Arith List Bool Lia.
From Coq Require Import ZifyBool ZifyN ZifyNat.
From FF Require Import Lib.Word Gen.Consts_device_acpi_aml Gen.Consts_aml_tree Aml.Stream Aml.Lex Aml.LexProofs
  Aml.Tree Aml.Parser Aml.ParserProofs Aml.TreeSpec Aml.TreeProofs Aml.TreeProofsOps Aml.TreeProofsFind Aml.TreeProofsAnc
  Aml.ParserTotalTree Aml.ParserTotalTree2 Aml.ParserTotalRuns Aml.ParserTotalLex Aml.ParserTotalTable Aml.ParserTotalBase Aml.ParserTotalLeaf
  Aml.ParserTotalFrame Aml.ParserTotalFirst Aml.ParserTotalConn Aml.ParserTotalNonNamed Aml.ParserTotalCalls Aml.ParserTotalReloc
  Aml.ParserTotalMerge Aml.ParserTotalResolve Aml.ParserTotalDefer Aml.ParserTotalDeferW Aml.ParserTotalDeferV
  Aml.ParserTotalTyped Aml.ParserTotalShape Aml.ParserTotalChain Aml.ParserTotalConn2.
Import ListNotations.
Local Open Scope N_scope.

Definition SH (s : pstate) (g : ghost) : Prop :=
  glive g 0 /\ groot g 0 /\ is_sb s 0 /\ tyS NoX (p_tables s) (p_handle s) (p_tree s) g /\ TM2 (p_tree s) g /\ PEND s g.

(** ---- the name of a named object is written ---- *)
Lemma SH_setname s g a nm : TI s g -> SH s g -> tgt_ok s g a -> SH (with_tree s (tset (p_tree s) a (set_name nm))) g.
Proof.
  intros HT (H0 & Hr & Hsb & Hty & HTM & HP) (ao & op & fl & af & Hao & Erow & En & Eh & Eo & Ek).
  set (t2 := tset (p_tree s) a (set_name nm)).
  assert (Hback : forall i o2, tget t2 i = Some o2 -> exists o, tget (p_tree s) i = Some o /\ sameobj o o2 /\ o_value o2 = o_value o /\
                                (i <> a -> o2 = o)).
  { intros i o2 Hg. unfold t2 in Hg. rewrite get_tset in Hg. destruct (N.eqb_spec i a) as [->|Hne].
    - rewrite Hao in Hg. cbn [option_map] in Hg. inversion Hg; subst o2. exists ao. split; [exact Hao|].
      split; [repeat split|]. split; [reflexivity|intros F; contradiction].
    - exists o2. split; [exact Hg|]. split; [repeat split|]. auto. }
  assert (Hfwd : forall i o, tget (p_tree s) i = Some o -> exists o2, tget t2 i = Some o2 /\ sameobj o o2 /\ o_value o2 = o_value o /\
                               (i <> a -> o2 = o)).
  { intros i o Ho. unfold t2. rewrite get_tset, Ho. cbn [option_map]. destruct (N.eqb_spec i a) as [->|Hne].
    - eexists. split; [reflexivity|]. split; [repeat split|]. split; [reflexivity|intros F; contradiction].
    - exists o. split; [reflexivity|]. split; [repeat split|]. auto. }
  split; [exact H0|]. split; [exact Hr|]. split.
  { destruct Hsb as (ro & Hro & Ero). destruct (Hfwd 0 ro Hro) as (ro2 & Hro2 & (E1 & _) & _). exists ro2. split; [exact Hro2|congruence]. }
  split.
  { intros x xo2 Hx2 Hop Hh HX. cbn [p_tree p_tables p_handle with_tree] in *.
    destruct (Hback x xo2 Hx2) as (xo & Hxo & (E1 & E2 & E3) & _ & Hsame).
    assert (Hop0 : o_opcode xo = aml_pOpScope) by congruence. assert (Hh0 : o_tableHandle xo = p_handle s) by congruence.
    destruct (Hty x xo Hxo Hop0 Hh0 HX) as (Hnl & Hnn & n & c & no & co & tbl & sl & K1 & K2 & K3 & K4 & K5 & K6 & K7 & K8 & K9).
    assert (Hxa : x <> a).
    { intros ->. assert (xo = ao) by congruence. subst. rewrite (Hnn _ _ _ Erow) in En. discriminate. }
    rewrite (Hsame Hxa). split; [exact Hnl|]. split; [exact Hnn|].
    assert (Hna : n <> a) by (intros ->; contradiction).
    assert (Hca : c <> a) by (intros ->; assert (co = ao) by congruence; subst; contradiction).
    destruct (Hfwd n no K3) as (no2 & Hno2 & _ & _ & S1). destruct (Hfwd c co K8) as (co2 & Hco2 & _ & _ & S2).
    rewrite (S1 Hna) in Hno2. rewrite (S2 Hca) in Hco2.
    exists n, c, no, co, tbl, sl. repeat (split; [assumption|]). assumption. }
  split.
  { cbn [p_tree with_tree]. eapply TM2_step; [exact HTM| | |].
    - intros i o2 Hg. destruct (Hback i o2 Hg) as (o & Ho & So & _). eauto.
    - intros i o Ho. destruct (Hfwd i o Ho) as (o2 & Ho2 & So & _). eauto.
    - intros m mo a0 a1 rest a1o Hm Hop Hkm Ha1. split; [exists rest; exact Hkm|].
      intros a1o2 Ha12. destruct (Hfwd a1 a1o Ha1) as (o2 & Ho2 & _ & Hv & _). assert (o2 = a1o2) by (fold t2 in Ha12; congruence). subst. exact Hv. }
  intros x o2 Hl Ho2 Hf2. cbn [p_tree with_tree] in Ho2. destruct (Hback x o2 Ho2) as (o & Ho & So & _).
  assert (Hf : isflag s x = true).
  { rewrite <- Hf2. symmetry. apply (isflag_same s (with_tree s t2) x o o2 Ho Ho2 So). reflexivity. }
  destruct (HP x o Hl Ho Hf) as (Hpar & Hnp). split; [exact Hpar|]. destruct So as (E1 & _). rewrite E1. exact Hnp.
Qed.

(** ---- the sibling that follows a named object moves to the end of that object's children ---- *)
Lemma SH_attach s g parent target sib l1 l2 (t2 : T) g2 : TI s g -> SH s g ->
  kids g parent = l1 ++ target :: sib :: l2 -> tgt_ok s g target ->
  pframe (p_tree s) t2 -> shape_eq g g2 -> roots_iff g g2 ->
  (forall q, kids g2 q = (if q =? parent then remove1 sib (kids g parent) else kids g q) ++ (if q =? target then [sib] else [])) ->
  SH (with_tree s t2) g2.
Proof.
  intros HT (H0 & Hr & Hsb & Hty & HTM & HP) Hkp (ao & op & fl & af & Hao & Erow & En & Eh & Eo & Ek) Hpf S2 R2 Hk.
  pose proof (ti_R _ _ HT) as HR.
  assert (Hin_t : In target (kids g parent)) by (rewrite Hkp; apply in_or_app; right; left; reflexivity).
  assert (Hin_s : In sib (kids g parent)) by (rewrite Hkp; apply in_or_app; right; right; left; reflexivity).
  destruct (TI_live_get _ _ _ HT (proj1 ((R_gwf _ _ HR) _ _ Hin_t))) as (po & Hpo & Hlpo).
  destruct (R_kids _ _ HR _ _ Hpo Hlpo) as (_ & _ & _ & Hnd). rewrite Hkp in Hnd.
  assert (Hsame : forall q, q <> parent -> q <> target -> kids g2 q = kids g q).
  { intros q Q1 Q2. rewrite Hk. apply N.eqb_neq in Q1. apply N.eqb_neq in Q2. rewrite Q1, Q2. apply app_nil_r. }
  split; [apply (shape_eq_glive _ _ _ S2); exact H0|]. split; [apply (R2 0 H0); exact Hr|]. split; [apply is_sb_pframe; auto|]. split.
  { intros x xo2 Hx2 Hop Hh HX. cbn [p_tree p_tables p_handle with_tree] in *.
    destruct (pframe_inv _ _ _ _ Hpf Hx2) as (xo & Hxo & (E1 & E2 & E3 & E4 & _)).
    assert (Hop0 : o_opcode xo = aml_pOpScope) by congruence. assert (Hh0 : o_tableHandle xo = p_handle s) by congruence.
    destruct (Hty x xo Hxo Hop0 Hh0 HX) as (Hnl & Hnn & n & c & no & co & tbl & sl & K1 & K2 & K3 & K4 & K5 & K6 & K7 & K8 & K9).
    assert (Hxt : x <> target).
    { intros ->. assert (xo = ao) by congruence. subst. rewrite (Hnn _ _ _ Erow) in En. discriminate. }
    assert (Hnt : n <> target) by (intros ->; contradiction).
    assert (Hxp : x <> parent).
    { intros ->. rewrite Hkp in K1. destruct l1 as [|b l1']; cbn [app] in K1.
      - injection K1 as E _. apply Hnt. symmetry. exact E.
      - injection K1 as _ K1'. destruct l1' as [|b' l1'']; cbn [app] in K1'.
        + injection K1' as E _. subst c. assert (co = ao) by congruence. subst. contradiction.
        + injection K1' as _ K1''. destruct l1''; discriminate. }
    assert (Hnp : n <> parent) by (intros ->; rewrite K2 in Hin_t; contradiction).
    split; [congruence|]. split; [rewrite E2; exact Hnn|].
    destruct (proj2 Hpf _ _ K3) as (no2 & Hno2 & (F1 & _ & _ & _ & _ & _ & _ & F8)).
    destruct (proj2 Hpf _ _ K8) as (co2 & Hco2 & (G1 & _)).
    exists n, c, no2, co2, tbl, sl.
    split; [rewrite (Hsame x Hxp Hxt); exact K1|]. split; [rewrite (Hsame n Hnp Hnt); exact K2|].
    repeat (split; [congruence|]). split; [exact K7|]. split; congruence. }
  split.
  { cbn [p_tree with_tree]. eapply TM2_step; [exact HTM|apply pframe_back; exact Hpf|apply pframe_fwd; exact Hpf|].
    intros m mo a0 a1 rest a1o Hm Hop Hkm Ha1.
    destruct (HTM m mo Hm Hop) as (b0 & b1 & r & b0o & b1o & w & K1 & K2 & P0 & K4 & K5 & P1).
    rewrite Hkm in K1. injection K1 as <- <- <-.
    split.
    - rewrite Hk. destruct (N.eqb_spec m parent) as [->|Hmp].
      + assert (Hs0 : sib <> a0 /\ sib <> a1).
        { rewrite Hkp in Hkm. apply (sib_not_lead l1 l2 target sib a0 a1 rest Hnd Hkm).
          intros ->. assert (b0o = ao) by congruence. subst. destruct P0 as (_ & B & _). rewrite (B _ _ _ Erow) in En. discriminate. }
        destruct Hs0 as (S0 & S1). rewrite Hkm, (remove1_two sib a0 a1 rest S0 S1).
        destruct (parent =? target); cbn [app]; eexists; reflexivity.
      + destruct (N.eqb_spec m target) as [->|_]; [rewrite Hkm; cbn [app]; eexists; reflexivity|rewrite app_nil_r; exists rest; exact Hkm].
    - intros a1o2 Ha12. destruct (proj2 Hpf _ _ Ha1) as (o' & Ho' & E). assert (o' = a1o2) by congruence. subst.
      destruct E as (_ & _ & _ & _ & _ & _ & _ & E8). exact E8. }
  intros x o2 Hl2 Ho2 Hf2. cbn [p_tree with_tree] in Ho2.
  destruct (pframe_inv _ _ _ _ Hpf Ho2) as (o & Ho & E).
  assert (Hl : glive g x) by (apply (shape_eq_glive _ _ _ S2); exact Hl2).
  assert (Hf : isflag s x = true).
  { rewrite <- Hf2. symmetry. apply (isflag_same s (with_tree s t2) x o o2 Ho Ho2 (pay_same _ _ E)). reflexivity. }
  destruct (HP x o Hl Ho Hf) as (Hpar & Hnp). split; [eapply has_parent_move; eauto|]. destruct E as (E1 & _). rewrite E1. exact Hnp.
Qed.

(** ---- TM3 through connectNamedObjArgs: the abstract invariant [SH3] = [SH] /\ [TM3] ---- *)
Definition SH3 (s : pstate) (g : ghost) : Prop := SH s g /\ TM3 (p_tree s) g.

Lemma SH3_setname s g a nm : TI s g -> SH3 s g -> tgt_ok s g a -> SH3 (with_tree s (tset (p_tree s) a (set_name nm))) g.
Proof.
  intros HT (HS & HTM) Hok. split; [apply SH_setname; assumption|].
  cbn [p_tree with_tree]. set (t2 := tset (p_tree s) a (set_name nm)).
  assert (Hfwd : forall i o, tget (p_tree s) i = Some o -> exists o2, tget t2 i = Some o2 /\ sameobj o o2 /\ o_value o2 = o_value o).
  { intros i o Ho. unfold t2. rewrite get_tset, Ho. cbn [option_map]. destruct (i =? a); eexists; (split; [reflexivity|]); split; try reflexivity; repeat split. }
  assert (Hback : forall i o2, tget t2 i = Some o2 -> exists o, tget (p_tree s) i = Some o /\ sameobj o o2).
  { intros i o2 Hg. unfold t2 in Hg. rewrite get_tset in Hg. destruct (tget (p_tree s) i) as [o|] eqn:E; [|destruct (i =? a); discriminate].
    exists o. split; [reflexivity|]. destruct (i =? a); cbn [option_map] in Hg; inversion Hg; subst o2; repeat split. }
  eapply TM3_step; [exact HTM|exact Hback| |].
  - intros i o Ho. destruct (Hfwd i o Ho) as (o2 & Ho2 & So & _). eauto.
  - intros m mo a0 a1 rest a1o Hm Hop Hkm Hk0 Ha1. split; [exists rest; exact Hkm|]. split; [exact Hk0|].
    intros a1o2 Ha12. destruct (Hfwd a1 a1o Ha1) as (o2 & Ho2 & _ & Hv). assert (o2 = a1o2) by congruence. subst. exact Hv.
Qed.

Lemma SH3_attach s g parent target sib l1 l2 (t2 : T) g2 : TI s g -> SH3 s g ->
  kids g parent = l1 ++ target :: sib :: l2 -> tgt_ok s g target ->
  pframe (p_tree s) t2 -> shape_eq g g2 -> roots_iff g g2 ->
  (forall q, kids g2 q = (if q =? parent then remove1 sib (kids g parent) else kids g q) ++ (if q =? target then [sib] else [])) ->
  SH3 (with_tree s t2) g2.
Proof.
  intros HT (HS & HTM) Hkp Hok Hpf S2 R2 Hk. split; [eapply SH_attach; eauto|].
  destruct Hok as (ao & op & fl & af & Hao & Erow & En & Eh & Eo & Ek).
  pose proof (ti_R _ _ HT) as HR.
  assert (Hin_t : In target (kids g parent)) by (rewrite Hkp; apply in_or_app; right; left; reflexivity).
  destruct (TI_live_get _ _ _ HT (proj1 ((R_gwf _ _ HR) _ _ Hin_t))) as (po & Hpo & Hlpo).
  destruct (R_kids _ _ HR _ _ Hpo Hlpo) as (_ & _ & _ & Hnd). rewrite Hkp in Hnd.
  cbn [p_tree with_tree]. eapply TM3_step; [exact HTM|apply pframe_back; exact Hpf|apply pframe_fwd; exact Hpf|].
  intros m mo a0 a1 rest a1o Hm Hop Hkm Hk0 Ha1.
  destruct (HTM m mo Hm Hop) as (b0 & b1 & r & b0o & b1o & w & K1 & K2 & K3 & K4 & K5 & K6 & K7 & K8 & K9).
  rewrite Hkm in K1. injection K1 as <- <- <-.
  assert (Ht0 : target <> a0) by (intros ->; assert (b0o = ao) by congruence; subst; rewrite (np_not_named _ _ _ _ K4 Erow) in En; discriminate).
  assert (Ht1 : target <> a1) by (intros ->; assert (b1o = ao) by congruence; subst; rewrite (bp_not_named _ _ _ _ K8 Erow) in En; discriminate).
  split; [|split].
  - rewrite Hk. destruct (N.eqb_spec m parent) as [->|Hmp].
    + assert (Hs0 : sib <> a0 /\ sib <> a1) by (rewrite Hkp in Hkm; apply (sib_not_lead l1 l2 target sib a0 a1 rest Hnd Hkm Ht0)).
      destruct Hs0 as (S0 & S1). rewrite Hkm, (remove1_two sib a0 a1 rest S0 S1).
      destruct (parent =? target); cbn [app]; eexists; reflexivity.
    + destruct (N.eqb_spec m target) as [->|_]; [rewrite Hkm; cbn [app]; eexists; reflexivity|rewrite app_nil_r; exists rest; exact Hkm].
  - rewrite Hk.
    assert (E0p : (a0 =? parent) = false) by (apply N.eqb_neq; intros ->; rewrite Hk0 in Hin_t; contradiction).
    assert (E0t : (a0 =? target) = false) by (apply N.eqb_neq; intros E; apply Ht0; symmetry; exact E).
    rewrite E0p, E0t, app_nil_r. exact Hk0.
  - intros a1o2 Ha12. destruct (proj2 Hpf _ _ Ha1) as (o' & Ho' & E). assert (o' = a1o2) by congruence. subst.
    destruct E as (_ & _ & _ & _ & _ & _ & _ & E8). exact E8.
Qed.

Lemma SH3_KS3 s g a b c : SH3 s g -> KS3 (with_counters s a b c) g.
Proof. intros ((_ & _ & _ & _ & HTM & HP) & HT3). exact (conj (conj HTM HP) HT3). Qed.

Lemma SH3_conn : forall fuel, CN_spec2 SH3 fuel.
Proof. intros fuel. exact (conn_all2 SH3 SH3_setname SH3_attach fuel). Qed.

(** ---- connectNamedObjArgs touches neither the reader nor the stacks nor the size of the pool ---- *)
Lemma attachSiblings_go_quiet fuel : forall par tgt sib n up, quiet (attachSiblings_go fuel par tgt sib n up).
Proof.
  induction fuel as [|fuel IH]; intros; cbn [attachSiblings_go]; [apply runs_outOfFuel|].
  q_unf. quiet_tac ltac:(apply IH).
Qed.
Lemma connectNamed_quiet fuel : (forall i, quiet (connectNamedObjArgs fuel i)) /\ (forall o i, quiet (connectNamed_loop fuel o i)).
Proof.
  induction fuel as [|fuel (IH1 & IH2)]; (split; intros; [cbn [connectNamedObjArgs]|cbn [connectNamed_loop]]);
    try (apply runs_outOfFuel).
  - q_unf. quiet_tac ltac:(apply IH2).
  - unfold attachSiblingsAsArgs, setNameFrom. q_unf. quiet_tac ltac:(first [apply IH1 | apply IH2 | apply attachSiblings_go_quiet]).
Qed.

Section Pass2.
Variable tbls : list (list N).
Notation IV := (Inv tbls).

(** everything after the first pass, as in parseAML_body *)
Definition parse_rest2 (fuel : nat) : M bool :=
  mlet r2 <~ connectNamedObjArgs fuel 0 ;;
  if negb (pres_eqb r2 ROk) then ret false else
  (fun s => Ok (tt, with_counters s 1 (p_mergedScopes s) (p_relocatedObjects s))) ;;;
  parse_rest fuel.

Lemma parseAML_body_rest2 fuel :
  parseAML_body fuel =
  (scopeEnter 0 ;;;
   mlet r1 <~ parseObjectList fuel ;;
   if pres_eqb r1 RFailed then ret false else parse_rest2 fuel).
Proof. reflexivity. Qed.

(** with a postcondition (see ParserTotalChain.rest_post): [J] is an invariant of connectNamedObjArgs that implies [SH]
    and the invariant [KI] of the resolve loop *)
Section Post2.
Variable K : T -> ghost -> Prop.
Hypothesis K_move : Kmove K.
Hypothesis K_upd : Kupd K.
Hypothesis K_walk : forall f4 pf s g s1 g1, WI s g -> parseDeferredBlocks f4 pf 0 s = Ok (ROk, s1) -> WI s1 g1 -> wstep s g s1 g1 -> TM NoX s1 g1 ->
  K (p_tree s) g -> K (p_tree s1) g1.
Variable KI : pstate -> ghost -> Prop.
Hypothesis KI_KS : forall s g, KI s g -> KS s g.
Hypothesis KI_TM : forall s g, KI s g -> TM NoX s g.
Hypothesis KI_loop : forall wf fuel s g, MI KI NoX s g ->
  wp True (resolve_loop fuel wf) s (fun _ s' => exists g', MI KI NoX s' g').
Hypothesis K_start : forall s g, MI KI NoX s g -> K (p_tree s) g.
Variable J : pstate -> ghost -> Prop.
Hypothesis J_SH : forall s g, J s g -> SH s g.
Hypothesis J_conn : forall fuel, CN_spec2 J fuel.
Hypothesis J_KI : forall s g a b c, J s g -> KI (with_counters s a b c) g.

Theorem rest2_post : forall fuel s g,
  R (p_tree s) g -> info_valid (p_tree s) -> rok (p_r s) -> p_scopeStack s = [] -> IV s ->
  J s g -> typed (p_tree s) ->
  lp s + lp s * (8 * r_len (p_r s) + 3) + 4 <= InvalidIndex ->
  match parse_rest2 fuel s with
  | Ok (b, s') => tpost K b s'
  | Panic => False
  | OutOfFuel => True
  end.
Proof.
  intros fuel s g HR Hi Hrk Hst I0 HJ Htyp Hcap.
  assert (Hpool : pool_ok (p_tables s) (p_tree s)) by (rewrite (inv_tbls _ _ I0); apply (inv_pool _ _ I0)).
  assert (HT : TI s g) by (constructor; auto).
  assert (W : wp True (parse_rest2 fuel) s (tpost K)).
  { unfold parse_rest2.
    apply (wp_bind_inv tbls _ _ _ _ _ I0); [apply (proj1 (hoare_connectNamed tbls fuel))|].
    eapply wp_weaken; [apply (wp_and_pc _ _ _ _ (fun _ s' => (p_r s' = p_r s /\ p_scopeStack s' = p_scopeStack s /\
                                  length (t_pool (p_tree s')) = length (t_pool (p_tree s))) /\ typed (p_tree s'))
                         (J_conn fuel 0 s g HT HJ (proj1 (J_SH _ _ HJ))))|auto|].
    - intros a s' E. split; [apply (proj1 (connectNamed_quiet fuel) 0 s a s' E)|apply (proj1 (connectNamed_tyk fuel) 0 s a s' E Htyp)].
    - intros r2 s1 ((g1 & [A B C] & HJ1 & _) & (Q1 & Q2 & Q3) & Ht1) I1.
      destruct (pres_eqb r2 ROk); cbn [negb].
      2:{ apply wp_ret. exists g1. split; [exact A|]. split; [exact B|]. split; [exact C|discriminate]. }
      apply wp_bind. apply wp_counters.
      set (s2 := with_counters s1 1 (p_mergedScopes s1) (p_relocatedObjects s1)).
      assert (I2 : IV s2) by (destruct I1 as [J1 J2 J3 J4 J5]; constructor; assumption).
      destruct (J_SH _ _ HJ1) as (K0 & K1 & K2 & K3 & K4 & K5).
      pose proof (rest_post tbls K K_move K_upd K_walk KI KI_KS KI_TM KI_loop K_start fuel s2 g1 A B) as T.
      unfold wp. destruct (parse_rest fuel s2) as [[b s']| |] eqn:Et; auto; apply T; auto;
        try (unfold s2; cbn [p_r with_counters]; rewrite Q1; exact Hrk); try (unfold s2; cbn [p_scopeStack with_counters]; rewrite Q2; exact Hst);
        try (unfold lp, s2 in *; cbn [p_r p_tree with_counters]; rewrite Q1, Q3; exact Hcap);
        try (apply J_KI; exact HJ1). }
  unfold wp in W. destruct (parse_rest2 fuel s) as [[b s']| |]; auto.
Qed.
End Post2.

End Pass2.

Lemma rest2_hyps_example :
  exists (s : pstate) (g : ghost),
    R (p_tree s) g /\ info_valid (p_tree s) /\ rok (p_r s) /\ p_scopeStack s = [] /\ Inv (p_tables s) s /\
    SH3 s g /\ typed (p_tree s) /\
    lp s + lp s * (8 * r_len (p_r s) + 3) + 4 <= InvalidIndex /\
    match parse_rest2 10 s with Ok (b, s') => b = true /\ lp s' = 4 | _ => False end.
Proof.
  pose proof dex0_hyps as H. cbv zeta in H. destruct H as (A & B & C & D & E & F & G & H1 & H2 & H3 & H4 & H5 & H6).
  exists dex0_state, dex_ghost.
  split; [exact A|]. split; [exact B|]. split; [exact C|]. split; [exact D|]. split; [exact E|].
  split; [split; [split; [exact F|]; split; [exact G|]; split; [exact H1|]; split; [exact H2|]; split; [apply TM3_TM2; exact H3|exact H4]|exact H3]|].
  split; [exact H5|]. split; [exact H6|]. vm_compute. split; reflexivity.
Qed.
