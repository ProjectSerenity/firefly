(** connectNonNamedObjArgs (the last pass of ParseAML) never panics and keeps C13's tree relation.
    For every object that is not named and lacks arguments, attachSiblingsAsArgs(useParent = true) moves the siblings that
    follow it - and then the siblings that follow its parent - below it.  The walk over the children from the last to the
    first is shared with resolveMethodCalls (section Walk: the action on a child is a parameter). *)
From Coq Require Import NArith Arith List Bool Lia.
From Coq Require Import ZifyBool ZifyN ZifyNat.
From FF Require Import Lib.Word Gen.Consts_device_acpi_aml Gen.Consts_aml_tree Aml.Stream Aml.Lex Aml.LexProofs
  Aml.Tree Aml.Parser Aml.ParserProofs Aml.TreeSpec Aml.TreeProofs Aml.TreeProofsOps Aml.TreeProofsFind
  Aml.ParserTotalTree Aml.ParserTotalTree2 Aml.ParserTotalLex Aml.ParserTotalTable Aml.ParserTotalBase Aml.ParserTotalLeaf
  Aml.ParserTotalConn.
Import ListNotations.
Local Open Scope N_scope.

Lemma move_gen {RT} P par x target (m : M RT) s g (Q : RT -> pstate -> Prop) :
  TI s g -> In x (kids g par) -> glive g target -> ~ desc g x target ->
  (forall t2, let g2 := astep (astep g (OpDetach par x)) (OpAppend target x) in
                 TI (with_tree s t2) g2 -> length (g_kids g2) = length (g_kids g) /\ g_free g2 = g_free g ->
                 (forall y, glive g y -> (groot g2 y <-> groot g y)) -> kids g2 x = kids g x ->
                 (forall S : N -> Prop, S x -> evolve S g g2) -> pframe (p_tree s) t2 ->
                 (forall q, kids g2 q = (if q =? par then remove1 x (kids g par) else kids g q) ++ (if q =? target then [x] else [])) ->
                 wp P m (with_tree s t2) Q) ->
  wp P (detachM (Some par) (Some x) ;;; appendM (Some target) x ;;; m) s Q.
Proof.
  intros H Hin Hlt Hnd K. pose proof (ti_R _ _ H) as HR.
  pose proof (R_gwf _ _ HR) as Hwf. destruct (Hwf _ _ Hin) as (Hlp & Hlx).
  destruct (detach_full (p_tree s) g par x HR Hin) as (t1 & E1 & HR1 & Hpf1).
  apply wp_bind. apply wp_detachM. exists t1. split; [exact E1|].
  set (g1 := astep g (OpDetach par x)) in *.
  assert (H1 : TI (with_tree s t1) g1) by (eapply TI_pframe; eauto).
  assert (Hplt : par < N.of_nat (length (g_kids g))) by (apply glive_lt; exact Hlp).
  assert (Hk1 : forall q, kids g1 q = if q =? par then remove1 x (kids g par) else kids g q).
  { intros q. unfold g1. cbn [astep]. rewrite kids_set_kids by exact Hplt. destruct (q =? par) eqn:E; [apply N.eqb_eq in E; subst|]; reflexivity. }
  destruct (TI_live_get _ _ _ H Hlp) as (po & Hpo & Hlpo).
  destruct (R_kids _ _ HR _ _ Hpo Hlpo) as (_ & _ & _ & Hnd0).
  assert (Hsub1 : forall p c, In c (kids g1 p) -> In c (kids g p)).
  { intros p c. rewrite Hk1. destruct (p =? par) eqn:Eq; auto. apply N.eqb_eq in Eq. subst p. apply remove1_In. }
  assert (Hshape1 : forall y, glive g y -> glive g1 y) by (intros y Hy; unfold g1; cbn [astep]; apply glive_set_kids; exact Hy).
  assert (Hroot1 : groot g1 x).
  { intros q Hq. rewrite Hk1 in Hq. destruct (q =? par) eqn:Eq.
    - revert Hq. apply remove1_notin. exact Hnd0.
    - apply N.eqb_neq in Eq. apply Eq. eapply (R_parent_unique _ _ HR); eauto. }
  assert (Hnd1 : ~ desc g1 x target) by (intros Hd; apply Hnd; eapply desc_mono; eauto).
  destruct (append_full2 (p_tree (with_tree s t1)) g1 target x HR1 (Hshape1 _ Hlt) (Hshape1 _ Hlx) Hroot1 Hnd1) as (t2 & E2 & HR2 & Hpf2).
  apply wp_bind. apply wp_appendM. exists t2. split; [exact E2|].
  set (g2 := astep g1 (OpAppend target x)) in *.
  assert (H2 : TI (with_tree (with_tree s t1) t2) g2) by (eapply TI_pframe; eauto).
  assert (Htlt : target < N.of_nat (length (g_kids g1))) by (apply glive_lt; apply Hshape1; exact Hlt).
  assert (Hk2 : forall q, kids g2 q = if q =? target then kids g1 target ++ [x] else kids g1 q).
  { intros q. unfold g2. cbn [astep]. rewrite kids_set_kids by exact Htlt. destruct (q =? target) eqn:E; [apply N.eqb_eq in E; subst|]; reflexivity. }
  assert (Hxt : x <> target) by (intros E; apply Hnd; rewrite E; constructor).
  assert (Hxp : x <> par) by (eapply (R_child_neq_parent _ _ HR); eauto).
  apply (K t2); auto.
  - split; unfold g2, g1; cbn [astep]; rewrite ?set_kids_len, ?set_kids_free; reflexivity.
  - intros y Hy. destruct (N.eq_dec y x) as [->|Hyx].
    + split; intros Hr; exfalso.
      * apply (Hr target). rewrite Hk2, N.eqb_refl. apply in_or_app. right. left. reflexivity.
      * apply (Hr par). exact Hin.
    + assert (Hmem : forall q, In y (kids g2 q) <-> In y (kids g q)).
      { intros q. rewrite Hk2. assert (A : In y (kids g1 q) <-> In y (kids g q)).
        { rewrite Hk1. destruct (q =? par) eqn:E; [apply N.eqb_eq in E; subst; apply In_remove1_neq; exact Hyx|tauto]. }
        destruct (q =? target) eqn:E; [apply N.eqb_eq in E; subst|exact A].
        rewrite in_app_iff. cbn [In]. rewrite A. intuition congruence. }
      unfold groot. split; intros Hr q Hq; apply (Hr q); apply Hmem; exact Hq.
  - rewrite Hk2. apply N.eqb_neq in Hxt. rewrite Hxt, Hk1. apply N.eqb_neq in Hxp. rewrite Hxp. reflexivity.
  - intros S HSx. constructor.
    + unfold g2, g1. cbn [astep]. rewrite !set_kids_len. reflexivity.
    + intros y (A & B). split; [|exact B]. unfold g2, g1 in A. cbn [astep] in A. rewrite !set_kids_len in A. exact A.
    + intros y Hy _. unfold g2. cbn [astep]. apply glive_set_kids. apply Hshape1. exact Hy.
    + intros q. exists (kids g1 q), (if q =? target then [x] else []). rewrite Hk2. split; [|split].
      * destruct (q =? target) eqn:E; [apply N.eqb_eq in E; subst q; reflexivity|rewrite app_nil_r; reflexivity].
      * rewrite Hk1. destruct (q =? par) eqn:E; [apply N.eqb_eq in E; subst q; apply sublist_remove1|apply sublist_refl].
      * destruct (q =? target); constructor; auto.
  - eapply pframe_trans; [exact Hpf1|exact Hpf2].
  - intros q. rewrite Hk2, <- Hk1. destruct (q =? target) eqn:E; [apply N.eqb_eq in E; subst q; reflexivity|rewrite app_nil_r; reflexivity].
Qed.

Lemma reloc_of_move g g2 par x target (S : N -> Prop) :
  length (g_kids g2) = length (g_kids g) /\ g_free g2 = g_free g -> S par -> S target -> S x -> In x (kids g par) ->
  (forall q, kids g2 q = (if q =? par then remove1 x (kids g par) else kids g q) ++ (if q =? target then [x] else [])) ->
  reloc g g2 S.
Proof.
  intros (L & F) Hp Ht Hx Hin Hk. constructor; auto.
  - intros y Hy. rewrite Hk. destruct (N.eqb_spec y par) as [->|_]; [contradiction|].
    destruct (N.eqb_spec y target) as [->|_]; [contradiction|]. apply app_nil_r.
  - intros y c Hc. rewrite Hk in Hc. apply in_app_or in Hc. destruct Hc as [Hc|Hc].
    + destruct (N.eqb_spec y par) as [->|_]; [left; eapply remove1_In; eauto|left; exact Hc].
    + destruct (N.eqb_spec y target) as [->|_]; [|contradiction]. destruct Hc as [<-|[]]. right. split; assumption.
Qed.

Lemma move_wp P par x target pre post (m : M pres) s g (Q : pres -> pstate -> Prop) :
  TI s g -> kids g par = pre ++ x :: post -> glive g target -> target <> par -> ~ desc g x target ->
  (forall t2,
     let g2 := astep (astep g (OpDetach par x)) (OpAppend target x) in
     TI (with_tree s t2) g2 -> kids g2 par = pre ++ post -> kids g2 target = kids g target ++ [x] ->
     (forall q, q <> par -> q <> target -> kids g2 q = kids g q) ->
     (forall S : N -> Prop, S par -> S target -> S x -> reloc g g2 S) ->
     (forall r, groot g r -> groot g2 r) ->
     pframe (p_tree s) t2 ->
     wp P m (with_tree s t2) Q) ->
  wp P (detachM (Some par) (Some x) ;;; appendM (Some target) x ;;; m) s Q.
Proof.
  intros H Hk Hlt Hne Hnd K. pose proof (ti_R _ _ H) as HR.
  assert (Hin : In x (kids g par)) by (rewrite Hk; apply in_or_app; right; left; reflexivity).
  destruct ((R_gwf _ _ HR) _ _ Hin) as (Hlp & _).
  destruct (TI_live_get _ _ _ H Hlp) as (po & Hpo & Hlpo).
  destruct (R_kids _ _ HR _ _ Hpo Hlpo) as (_ & _ & _ & Hnd0). rewrite Hk in Hnd0.
  apply (move_gen P par x target m s g Q H Hin Hlt Hnd). intros t2 g2 H2 S2 R2 _ _ Hpf Hkf.
  assert (Etp : (target =? par) = false) by (apply N.eqb_neq; exact Hne).
  assert (Ept : (par =? target) = false) by (rewrite N.eqb_sym; exact Etp).
  apply (K t2); auto.
  - rewrite Hkf, N.eqb_refl, Ept, app_nil_r, Hk. apply remove1_split.
    apply NoDup_remove_2 in Hnd0. intros Hi. apply Hnd0. apply in_or_app. left. exact Hi.
  - rewrite Hkf, Etp, N.eqb_refl. reflexivity.
  - intros q Hq1 Hq2. rewrite Hkf. apply N.eqb_neq in Hq1. apply N.eqb_neq in Hq2. rewrite Hq1, Hq2. apply app_nil_r.
  - intros S HSp HSt HSx. apply (reloc_of_move g g2 par x target S S2 HSp HSt HSx Hin Hkf).
  - intros r Hr q Hq. rewrite Hkf in Hq. apply in_app_or in Hq. destruct Hq as [Hq|Hq].
    + apply (Hr q). destruct (q =? par) eqn:E; [apply N.eqb_eq in E; rewrite E; eapply remove1_In; eauto|exact Hq].
    + destruct (q =? target); [|contradiction]. destruct Hq as [<-|[]]. apply (Hr par). exact Hin.
Qed.

(** ---- attachSiblingsAsArgs with useParent = true ---- *)
Definition ctx (g : ghost) (P : N) (GP : option N) (m1 m2 : list N) : Prop :=
  match GP with Some gp => kids g gp = m1 ++ P :: m2 | None => groot g P /\ m2 = [] end.

Definition top (P : N) (GP : option N) : N := match GP with Some gp => gp | None => P end.

Definition sib_ok (l2 m2 : list N) (sib : N) : Prop :=
  match l2 with x :: _ => sib = x | [] => sib = InvalidIndex \/ sib = hd InvalidIndex m2 end.

Lemma desc_top g P GP m1 m2 : ctx g P GP m1 m2 -> desc g (top P GP) P.
Proof.
  destruct GP as [gp|]; cbn [ctx top]; [|intros _; constructor].
  intros Hk. eapply desc_step; [constructor|]. rewrite Hk. apply in_or_app. right. left. reflexivity.
Qed.

Lemma grandchild_neq s g gp P x : TI s g -> In P (kids g gp) -> In x (kids g P) -> x <> gp.
Proof.
  intros H HP Hx E. subst x. pose proof (ti_R _ _ H) as HR.
  apply (child_not_desc _ _ HR _ _ HP). eapply desc_step; [constructor|exact Hx].
Qed.

(** the row of a name-path object (no arguments): such an object never receives siblings *)
Definition tgt (s : pstate) (target : N) : Prop := exists o, tget (p_tree s) target = Some o /\ o_infoIndex o <> npIdx.

Lemma tgt_pframe s (t2 : T) target : tgt s target -> pframe (p_tree s) t2 -> tgt (with_tree s t2) target.
Proof.
  intros (o & Ho & Hn) Hpf. destruct (proj2 Hpf _ _ Ho) as (o2 & Ho2 & (_ & E2 & _)). exists o2. split; [exact Ho2|]. rewrite E2. exact Hn.
Qed.

Lemma np_row op fl af : opInfo npIdx = Some (op, fl, af) -> (argCount af <=? termArgIndex af) = true.
Proof. intros H. vm_compute in H. injection H as _ _ <-. reflexivity. Qed.

Definition Kmove (K : T -> ghost -> Prop) : Prop := forall s g par x target pre post (t2 : T),
  TI s g -> K (p_tree s) g -> kids g par = pre ++ x :: post -> glive g target -> target <> par -> tgt s target ->
  ((exists pre', pre = pre' ++ [target]) \/ (exists pre' P l1, pre = pre' ++ [P] /\ kids g P = l1 ++ [target])) ->
  let g2 := astep (astep g (OpDetach par x)) (OpAppend target x) in
  TI (with_tree s t2) g2 -> kids g2 par = pre ++ post -> kids g2 target = kids g target ++ [x] ->
  (forall q, q <> par -> q <> target -> kids g2 q = kids g q) -> pframe (p_tree s) t2 ->
  K t2 g2.

Definition others (g g' : ghost) (P target : N) (GP : option N) : Prop :=
  forall q, q <> P -> q <> target -> q <> top P GP -> kids g' q = kids g q.

(** after the walk below the child [a] of [obj] (state [g1]) something is rearranged at [obj], [a] and the parent of [obj] only
    (state [g2]): the subtrees of the children before [a] are as in [g], and so is every child list outside the subtrees visited so far *)
Lemma elder_same2 (t1 : T) g g1 g2 obj GP m1 m2 l a r1 : R t1 g1 -> glive g1 obj -> kids g1 obj = l ++ a :: r1 -> ctx g1 obj GP m1 m2 ->
  (forall c y, In c l -> desc g c y -> kids g1 y = kids g y) ->
  (forall q, (forall c, In c (l ++ [a]) -> ~ desc g c q) -> q <> obj -> q <> top obj GP -> kids g1 q = kids g q) ->
  others g1 g2 obj a GP ->
  (forall c y, In c l -> desc g c y -> kids g2 y = kids g y) /\
  (forall q, (forall c, In c (l ++ [a]) -> ~ desc g c q) -> q <> obj -> q <> top obj GP -> kids g2 q = kids g q).
Proof.
  intros HR1 Hl1 Hk1 Hctx1 Hsame1 HFq1 HF2.
  assert (Hin1 : forall c, In c l -> In c (kids g1 obj)) by (intros c Hc; rewrite Hk1; apply in_or_app; left; exact Hc).
  assert (Hin1a : In a (kids g1 obj)) by (rewrite Hk1; apply in_or_app; right; left; reflexivity).
  assert (Hsame2 : forall c y, In c l -> desc g1 c y -> kids g2 y = kids g1 y).
  { intros c y Hc Hd. apply HF2.
    - intros ->. apply (child_not_desc _ _ HR1 obj c (Hin1 c Hc) Hd).
    - intros ->. apply (elder_neq t1 g1 obj l a r1 c HR1 Hl1 Hk1 Hc).
      apply (siblings_disjoint2 t1 g1 obj c a a HR1 (Hin1 c Hc) Hin1a Hd). constructor.
    - intros ->. destruct GP as [gp|]; cbn [top ctx] in *.
      + assert (Hin_o : In obj (kids g1 gp)) by (rewrite Hctx1; apply in_or_app; right; left; reflexivity).
        apply (child_not_desc _ _ HR1 gp obj Hin_o). eapply desc_trans; [eapply desc_step; [constructor|exact (Hin1 c Hc)]|exact Hd].
      + apply (child_not_desc _ _ HR1 obj c (Hin1 c Hc) Hd). }
  split.
  - intros c y Hc Hd. rewrite (Hsame2 c y Hc); [apply (Hsame1 c y Hc Hd)|].
    apply (desc_same_fwd g g1 c y); [intros z Hz; apply (Hsame1 c z Hc Hz)|exact Hd].
  - intros q Hq Hqo Hqt. rewrite HF2; [apply HFq1; auto|exact Hqo| |exact Hqt].
    intros ->. apply (Hq a); [apply in_or_app; right; left; reflexivity|constructor].
Qed.

Definition KT : T -> ghost -> Prop := fun _ _ => True.
Lemma KT_move : Kmove KT.
Proof. unfold Kmove. intros. exact I. Qed.

(** The walk that connectNonNamedObjArgs and resolveMethodCalls share: over the children of an object from the last to the first,
    for each child first the walk below it, then an action on the child that may take the siblings that follow it and after them those
    that follow its parent.  [Iv] is the invariant the action keeps, [Rel] relates the states before and after. *)
Section Walk.
Variable Iv : pstate -> ghost -> Prop.
Variable Rel : pstate -> pstate -> Prop.
Hypothesis Rel_refl : forall s, Rel s s.
Hypothesis Rel_trans : forall a b c, Rel a b -> Rel b c -> Rel a c.

Definition gpost (s : pstate) (g : ghost) (P : N) (GP : option N) (m1 : list N) (s' : pstate) (g' : ghost) (m2' : list N) : Prop :=
  TI s' g' /\ reloc g g' (desc g (top P GP)) /\ ctx g' P GP m1 m2' /\ (forall r, groot g r -> groot g' r) /\ Rel s s' /\ Iv s' g'.

Definition wpost (s : pstate) (g : ghost) (x : N) (GP : option N) (m1 m2 : list N) (s' : pstate) : Prop :=
  exists g' m2', gpost s g x GP m1 s' g' m2' /\ (length m2' <= length m2)%nat /\
    (forall q, ~ desc g x q -> q <> top x GP -> kids g' q = kids g q).

Definition lpost (s : pstate) (g : ghost) (obj : N) (GP : option N) (m1 m2 l : list N) (s' : pstate) : Prop :=
  exists g' m2', gpost s g obj GP m1 s' g' m2' /\ (length m2' <= length m2)%nat /\
    (forall q, (forall c, In c l -> ~ desc g c q) -> q <> obj -> q <> top obj GP -> kids g' q = kids g q).

Variable walk : N -> M pres.
Variable loop : N -> N -> M pres.
Variable fuel : nat.

Definition W_spec : Prop := forall x s g GP m1 m2, TI s g -> glive g x -> ctx g x GP m1 m2 -> Iv s g ->
  wp (PO2 g x m2 fuel) (walk x) s (fun r s' => wpost s g x GP m1 m2 s').

Definition L_spec : Prop := forall obj argIndex s g GP m1 m2 l r, TI s g -> glive g obj -> ctx g obj GP m1 m2 -> Iv s g ->
  kids g obj = l ++ r -> argIndex = last l InvalidIndex ->
  wp (PL2 g l r m2 fuel) (loop obj argIndex) s (fun r0 s' => lpost s g obj GP m1 m2 l s').

(** the action on the child [a] of [obj], with its continuation [k]: afterwards either [k] runs or some result is returned, from a state
    in which only the child lists of [obj], of [a] and of the parent of [obj] differ; it runs out of fuel only if the fuel is at most
    the number of siblings it can take *)
Definition B_spec (body : N -> N -> M pres -> M pres) : Prop :=
  forall obj a (k : M pres) s1 g1 l r1 GP m1 m2 (P : Prop) (Q : pres -> pstate -> Prop),
  TI s1 g1 -> glive g1 obj -> kids g1 obj = l ++ a :: r1 -> ctx g1 obj GP m1 m2 -> Iv s1 g1 ->
  ((fuel <= length r1 + length m2)%nat -> P) ->
  (forall s2 g2 r2 m2b, gpost s1 g1 obj GP m1 s2 g2 m2b -> kids g2 obj = l ++ a :: r2 ->
     (length r2 <= length r1)%nat -> (length m2b <= length m2)%nat -> others g1 g2 obj a GP ->
     wp P k s2 Q /\ forall res, Q res s2) ->
  wp P (body obj a k) s1 Q.

Lemma walk_step : L_spec -> forall x s g GP m1 m2, TI s g -> glive g x -> ctx g x GP m1 m2 -> Iv s g ->
  wp (PO2 g x m2 (S fuel)) (mlet obj <~ objectAt' x ;; mlet argIndex <~ rdf obj o_last ;; loop obj argIndex) s
     (fun r s' => wpost s g x GP m1 m2 s').
Proof.
  intros IHl x s g GP m1 m2 H Hl Hctx HI.
  pose proof (ti_R _ _ H) as HR.
  apply wp_bind. apply wp_objectAt'; [apply (TI_ObjectAt _ _ _ H Hl)|].
  destruct (TI_live_get _ _ _ H Hl) as (o & Ho & Hlo).
  apply wp_bind. apply wp_rdf. exists o. split; [exact Ho|].
  destruct (R_kids _ _ HR _ _ Ho Hlo) as (_ & Hlast & _). rewrite Hlast.
  eapply wp_weaken; [apply (IHl x _ s g GP m1 m2 (kids g x) [] H Hl Hctx HI (eq_sym (app_nil_r _)) eq_refl)| |].
  - intros HP n Hn. inversion Hn as [x' n' Hs]; subst. specialize (HP n' Hs). cbn [length] in HP. lia.
  - intros r s' (g' & m2' & A & B & C). exists g', m2'. split; [exact A|]. split; [exact B|].
    intros q Hq Hqt. apply C; [|intros ->; apply Hq; constructor|exact Hqt].
    intros c Hc Hd. apply Hq. eapply desc_trans; [eapply desc_step; [constructor|exact Hc]|exact Hd].
Qed.

Lemma ctx_inside s g g' obj GP m1 m2 : TI s g -> ctx g obj GP m1 m2 -> reloc g g' (desc g obj) ->
  (forall r, groot g r -> groot g' r) -> ctx g' obj GP m1 m2.
Proof.
  intros H Hctx Rl Hroots. destruct GP as [gp|]; cbn [ctx] in *.
  - rewrite (rl_out _ _ _ Rl); [exact Hctx|]. apply (child_not_desc _ _ (ti_R _ _ H)).
    rewrite Hctx. apply in_or_app. right. left. reflexivity.
  - destruct Hctx as (Hr & E). split; auto.
Qed.

Lemma loop_step body : B_spec body -> W_spec -> L_spec -> forall obj argIndex s g GP m1 m2 l r,
  TI s g -> glive g obj -> ctx g obj GP m1 m2 -> Iv s g -> kids g obj = l ++ r -> argIndex = last l InvalidIndex ->
  wp (PL2 g l r m2 (S fuel))
     (if argIndex =? InvalidIndex then ret ROk else
      mlet argObj <~ objectAt' argIndex ;;
      mlet ai <~ rdf argObj o_index ;;
      mlet res <~ walk ai ;;
      if negb (pres_eqb res ROk) then ret RFailed else
      body obj argObj (mlet prev <~ rdf argObj o_prev ;; loop obj prev)) s
     (fun r0 s' => lpost s g obj GP m1 m2 l s').
Proof.
  intros HB IHc IHl obj argIndex s g GP m1 m2 l r H Hl Hctx HI Hkl Harg.
  set (S0 := desc g (top obj GP)).
  assert (HS0top : S0 (top obj GP)) by constructor.
  assert (HS0obj : S0 obj) by (eapply desc_top; eauto).
  destruct (N.eqb_spec argIndex InvalidIndex) as [Ei|Ei].
  { apply wp_ret. exists g, m2. split; [split; auto; split; [apply reloc_refl|]; auto|].
    split; [lia|]. intros q _ _ _. reflexivity. }
  assert (Hne : l <> []) by (intros ->; cbn in Harg; contradiction).
  destruct (last_split l InvalidIndex Hne) as (l' & El). rewrite <- Harg in El. subst l. rewrite <- app_assoc in Hkl. cbn [app] in Hkl.
  assert (Hin : In argIndex (kids g obj)) by (rewrite Hkl; apply in_or_app; right; left; reflexivity).
  pose proof (ti_R _ _ H) as HR. pose proof (R_gwf _ _ HR) as Hwf. destruct (Hwf _ _ Hin) as (_ & Hla).
  apply wp_bind. apply wp_objectAt'; [apply (TI_ObjectAt _ _ _ H Hla)|].
  destruct (TI_live_get _ _ _ H Hla) as (ao0 & Hao0 & Hlao0).
  apply wp_bind. apply wp_rdf. exists ao0. split; [exact Hao0|]. rewrite (R_index _ _ HR _ _ Hao0).
  apply wp_bind. eapply wp_weaken; [apply (IHc argIndex s g (Some obj) l' r H Hla Hkl HI)| |].
  { intros HP m Hm. destruct (szl_snoc _ _ _ _ Hm) as (a & n & A & B & ->). specialize (HP n B). lia. }
  intros res s1 (g1 & r1 & (H1 & Rl1 & Hk1 & Hroots1 & Hrel1 & HI1) & Hlen1 & HF1). cbn [top ctx] in Rl1, Hk1, HF1.
  assert (Rl1' : reloc g g1 S0).
  { eapply reloc_lift; [|exact Rl1]. intros y Hy. eapply desc_in_closed; [apply closed_desc|exact HS0obj|exact Hy]. }
  assert (Hctx1 : ctx g1 obj GP m1 m2) by (apply (ctx_inside s g g1 obj GP m1 m2 H Hctx Rl1 Hroots1)).
  assert (Hl1 : glive g1 obj) by (apply (reloc_glive _ _ _ obj Rl1); exact Hl).
  pose proof (ti_R _ _ H1) as HR1.
  pose proof (elder_same (p_tree s) g g1 obj l' argIndex r HR Hl Hkl HF1) as Hsame1.
  assert (HFq1 : forall q, (forall c, In c (l' ++ [argIndex]) -> ~ desc g c q) -> q <> obj -> q <> top obj GP -> kids g1 q = kids g q).
  { intros q Hq Hqo _. apply HF1; [apply Hq; apply in_or_app; right; left; reflexivity|exact Hqo]. }
  destruct (negb (pres_eqb res ROk)).
  { apply wp_ret. exists g1, m2. split; [split; auto|]. split; [lia|exact HFq1]. }
  apply (HB obj argIndex _ s1 g1 l' r1 GP m1 m2 _ _ H1 Hl1 Hk1 Hctx1 HI1).
  { intros Hf m Hm. destruct (szl_snoc _ _ _ _ Hm) as (a & n & A & B & ->). pose proof (sz_pos _ _ _ B). lia. }
  intros s2 g2 r2 m2b (H2 & Rl2 & Hctx2 & Hroots2 & Hrel2 & HI2) Hk2 Hlen2 Hlenm2 HF2.
  assert (Hrel02 : Rel s s2) by (eapply Rel_trans; eauto).
  assert (Rl2' : reloc g g2 S0) by (eapply reloc_chain; [apply closed_desc|exact HS0top|exact Rl1'|exact Rl2]).
  destruct (elder_same2 (p_tree s1) g g1 g2 obj GP m1 m2 l' argIndex r1 HR1 Hl1 Hk1 Hctx1 Hsame1 HFq1 HF2) as (Hsame12 & HFq2).
  assert (Hroots02 : forall r', groot g r' -> groot g2 r') by (intros r' Hr'; apply Hroots2; apply Hroots1; exact Hr').
  split.
  2:{ intros _. exists g2, m2b. split; [split; [exact H2|]; split; [exact Rl2'|]; split; [exact Hctx2|]; split; [exact Hroots02|]; split; [exact Hrel02|exact HI2]|].
      split; [exact Hlenm2|exact HFq2]. }
  pose proof (ti_R _ _ H2) as HR2.
  assert (Hlo2 : glive g2 obj) by (apply (reloc_glive _ _ _ obj Rl2'); exact Hl).
  destruct (sibling_links _ _ HR2 obj l' argIndex r2 Hlo2 Hk2) as (ao2 & Hao2 & _ & _ & Hprev & _).
  apply wp_bind. apply wp_rdf. exists ao2. split; [exact Hao2|]. rewrite Hprev.
  eapply wp_weaken; [apply (IHl obj (last l' InvalidIndex) s2 g2 GP m1 m2b l' (argIndex :: r2) H2 Hlo2 Hctx2 HI2 Hk2 eq_refl)| |].
  - intros HP m Hm. destruct (szl_snoc _ _ _ _ Hm) as (a & n & A & B & ->).
    specialize (HP a (proj2 (sz_same g g2) l' a A Hsame12)). pose proof (sz_pos _ _ _ B). cbn [length] in HP. lia.
  - intros r' s' (g' & m2' & (F1 & F2 & F3 & F4 & F5 & F6) & Flen & FF). exists g', m2'.
    split; [split; [exact F1|]; split; [eapply reloc_chain; [apply closed_desc|exact HS0top|exact Rl2'|exact F2]|]|].
    + split; [exact F3|]. split; [intros r0' Hr0; apply F4; apply Hroots02; exact Hr0|].
      split; [eapply Rel_trans; eauto|exact F6].
    + split; [lia|]. intros q Hq Hqo Hqt. rewrite FF; [apply HFq2; auto| |exact Hqo|exact Hqt].
      intros c Hc Hd. apply (Hq c); [apply in_or_app; left; exact Hc|].
      apply (desc_same g g2 c q (fun y Hy => Hsame12 c y Hc Hy) Hd).
Qed.
End Walk.

Lemma pf_refl (s : pstate) : pframe (p_tree s) (p_tree s).
Proof. apply pframe_refl. Qed.
Lemma pf_trans (a b c : pstate) : pframe (p_tree a) (p_tree b) -> pframe (p_tree b) (p_tree c) -> pframe (p_tree a) (p_tree c).
Proof. apply pframe_trans. Qed.

Section Inv.
(** an invariant [K] of the rearrangements: it survives the move of [x] - the sibling that follows [target] or, when [target] is
    the last child of [P], the sibling that follows [P] - to the end of [target]'s child list, [target] not carrying the name-path row *)
Variable K : T -> ghost -> Prop.
Hypothesis K_move : Kmove K.

Definition a2post (s : pstate) (g : ghost) (P target : N) (GP : option N) (l1 l2 m1 m2 : list N) (s' : pstate) : Prop :=
  exists g' l2' m2',
     TI s' g' /\ reloc g g' (desc g (top P GP)) /\ kids g' P = l1 ++ target :: l2' /\ ctx g' P GP m1 m2' /\ (forall r, groot g r -> groot g' r) /\
     pframe (p_tree s) (p_tree s') /\ K (p_tree s') g' /\
     (length l2' <= length l2)%nat /\ (length m2' <= length m2)%nat /\ others g g' P target GP.

(** out of fuel only if the fuel is at most the number of siblings that can still be taken *)
Lemma attach2_spec : forall fuel P target sib n s g l1 l2 GP m1 m2,
  TI s g -> glive g P -> kids g P = l1 ++ target :: l2 -> ctx g P GP m1 m2 -> sib_ok l2 m2 sib -> K (p_tree s) g -> tgt s target ->
  wp (fuel <= length l2 + length m2)%nat (attachSiblings_go fuel P target sib n true) s (fun r s' => a2post s g P target GP l1 l2 m1 m2 s').
Proof.
  induction fuel as [|fuel IH]; intros P target sib n s g l1 l2 GP m1 m2 H HlP Hk Hctx Hsib HK Htg; cbn [attachSiblings_go].
  { apply wp_outOfFuel. lia. }
  pose proof (ti_R _ _ H) as HR. pose proof (R_gwf _ _ HR) as Hwf.
  assert (Hdone : forall (PP : Prop) (r : pres), wp PP (ret r) s (fun r s' => a2post s g P target GP l1 l2 m1 m2 s')).
  { intros PP r. apply wp_ret. exists g, l2, m2. split; auto. split; [apply reloc_refl|]. split; auto. split; auto. split; auto. split; [apply pframe_refl|].
    split; [exact HK|]. split; [lia|]. split; [lia|]. intros q _ _ _. reflexivity. }
  destruct (n =? 0); [apply Hdone|].
  rewrite andb_true_r.
  assert (Hin_t : In target (kids g P)) by (rewrite Hk; apply in_or_app; right; left; reflexivity).
  destruct (Hwf _ _ Hin_t) as (_ & Hlt).
  assert (Hne_tP : target <> P) by (eapply (R_child_neq_parent _ _ HR); eauto).
  assert (HStop : desc g (top P GP) (top P GP)) by constructor.
  assert (HSP : desc g (top P GP) P) by (eapply desc_top; eauto).
  assert (HSt : desc g (top P GP) target) by (eapply desc_step; [exact HSP|exact Hin_t]).
  (* the continuation after a move *)
  assert (Hrec : forall s2 g2 l2' m2' sib', TI s2 g2 -> reloc g g2 (desc g (top P GP)) -> kids g2 P = l1 ++ target :: l2' ->
            ctx g2 P GP m1 m2' -> sib_ok l2' m2' sib' -> (forall r, groot g r -> groot g2 r) -> pframe (p_tree s) (p_tree s2) ->
            K (p_tree s2) g2 -> tgt s2 target ->
            (length l2' <= length l2)%nat -> (length m2' <= length m2)%nat -> (length l2' + length m2' < length l2 + length m2)%nat ->
            others g g2 P target GP ->
            wp (Datatypes.S fuel <= length l2 + length m2)%nat (attachSiblings_go fuel P target sib' (n - 1) true) s2
               (fun r s' => a2post s g P target GP l1 l2 m1 m2 s')).
  { intros s2 g2 l2' m2' sib' H2 Rl2 Hk2 Hc2 Hs2 Hroots2 Hpf2 HK2 Htg2 Hl1' Hl2' Hlt' Hoth2.
    assert (HlP2 : glive g2 P) by (apply (reloc_glive _ _ _ P Rl2); exact HlP).
    eapply wp_weaken; [apply (IH P target sib' (n - 1) s2 g2 l1 l2' GP m1 m2' H2 HlP2 Hk2 Hc2 Hs2 HK2 Htg2)|lia|].
    intros r s' (g' & l2'' & m2'' & F1 & F2 & F3 & F4 & F5 & F6 & F7 & F8 & F9 & F10). exists g', l2'', m2''. split; auto.
    split; [eapply reloc_chain; [apply closed_desc|exact HStop|exact Rl2|exact F2]|].
    split; auto. split; auto. split; auto. split; [eapply pframe_trans; eauto|]. split; [exact F7|]. split; [lia|]. split; [lia|].
    intros q Q1 Q2 Q3. rewrite (F10 q Q1 Q2 Q3). apply (Hoth2 q Q1 Q2 Q3). }
  destruct l2 as [|x l2r].
  - (* the siblings of the target are used up: the siblings of the parent *)
    cbn [sib_ok] in Hsib.
    assert (Heff : forall (PP : Prop) (Q : N -> pstate -> Prop), Q (hd InvalidIndex m2) s ->
              wp PP (if sib =? InvalidIndex then rdf P o_next else ret sib) s Q).
    { intros PP Q HQ. destruct Hsib as [->| ->].
      - rewrite N.eqb_refl. destruct GP as [gp|]; cbn [ctx] in Hctx.
        + assert (Hlgp : glive g gp) by (apply (Hwf gp P); rewrite Hctx; apply in_or_app; right; left; reflexivity).
          destruct (sibling_links _ _ HR gp m1 P m2 Hlgp Hctx) as (o & Ho & _ & _ & _ & Hnx & _).
          apply wp_rdf. exists o. split; [exact Ho|]. rewrite Hnx. exact HQ.
        + destruct Hctx as (Hroot & ->). destruct (root_links _ _ HR P HlP Hroot) as (o & Ho & _ & _ & Hnx).
          apply wp_rdf. exists o. split; [exact Ho|]. rewrite Hnx. exact HQ.
      - destruct (hd InvalidIndex m2 =? InvalidIndex) eqn:E.
        + apply N.eqb_eq in E. destruct GP as [gp|]; cbn [ctx] in Hctx.
          * assert (Hlgp : glive g gp) by (apply (Hwf gp P); rewrite Hctx; apply in_or_app; right; left; reflexivity).
            destruct (sibling_links _ _ HR gp m1 P m2 Hlgp Hctx) as (o & Ho & _ & _ & _ & Hnx & _).
            apply wp_rdf. exists o. split; [exact Ho|]. rewrite Hnx. exact HQ.
          * destruct Hctx as (Hroot & ->). destruct (root_links _ _ HR P HlP Hroot) as (o & Ho & _ & _ & Hnx).
            apply wp_rdf. exists o. split; [exact Ho|]. rewrite Hnx. exact HQ.
        + apply wp_ret. exact HQ. }
    apply wp_bind. apply Heff.
    destruct (N.eqb_spec (hd InvalidIndex m2) InvalidIndex) as [Eu|Eu]; [apply Hdone|].
    destruct (hd_nonempty _ _ _ eq_refl Eu) as (m2r & Em2). set (u := hd InvalidIndex m2) in *. clearbody u. subst m2.
    destruct GP as [gp|]; cbn [ctx] in Hctx; [|destruct Hctx as (_ & E); discriminate].
    assert (Hin_P : In P (kids g gp)) by (rewrite Hctx; apply in_or_app; right; left; reflexivity).
    assert (Hin_u : In u (kids g gp)) by (rewrite Hctx; apply in_or_app; right; right; left; reflexivity).
    destruct (Hwf _ _ Hin_u) as (Hlgp & Hlu).
    destruct (TI_live_get _ _ _ H Hlgp) as (gpo & Hgpo & Hlgpo).
    destruct (R_kids _ _ HR _ _ Hgpo Hlgpo) as (_ & _ & _ & Hndg). rewrite Hctx in Hndg.
    assert (Hne_uP : u <> P).
    { intros E. subst u. apply NoDup_remove_2 in Hndg. apply Hndg. apply in_or_app. right. left. reflexivity. }
    replace (m1 ++ P :: u :: m2r) with ((m1 ++ [P]) ++ u :: m2r) in Hctx by (rewrite <- app_assoc; reflexivity).
    destruct (sibling_links _ _ HR gp _ u m2r Hlgp Hctx) as (uo & Huo & _ & Hupar & _ & Hunx & _).
    apply wp_bind, wp_get. rewrite (TI_ObjectAt _ _ _ H Hlu). apply wp_bind. cbn [need]. apply wp_ret.
    apply wp_bind. apply wp_rdf. exists uo. split; [exact Huo|]. rewrite Hunx.
    apply wp_bind. apply wp_rdf. exists uo. split; [exact Huo|]. rewrite Hupar.
    apply wp_bind, wp_get. rewrite (TI_ObjectAt _ _ _ H Hlgp).
    assert (Hne_tgp : target <> gp) by (apply (grandchild_neq s g gp P target H Hin_P Hin_t)).
    eapply (move_wp _ gp u target (m1 ++ [P]) m2r _ s g); [exact H|exact Hctx|exact Hlt|exact Hne_tgp| |].
    { eapply (uncle_not_desc _ _ HR gp P u target); eauto. }
    intros t2 g2 H2 Hk2 Hkt2 Hko2 Hrl2 Hroots2 Hpf2.
    assert (HK2 : K t2 g2).
    { apply (K_move s g gp u target (m1 ++ [P]) m2r t2 H HK Hctx Hlt Hne_tgp Htg); auto.
      right. exists m1, P, l1. split; [reflexivity|exact Hk]. }
    apply (Hrec _ g2 [] m2r (hd InvalidIndex m2r)); auto; try (cbn [length]; lia).
    + apply Hrl2; [exact HStop| exact HSt|]. eapply desc_step; [constructor|exact Hin_u].
    + rewrite Hko2; auto. intros E. apply (R_child_neq_parent _ _ HR _ _ Hin_P). exact E.
    + cbn [ctx]. rewrite Hk2, <- app_assoc. reflexivity.
    + cbn [sib_ok]. right. reflexivity.
    + apply tgt_pframe; auto.
    + intros q Q1 Q2 Q3. cbn [top] in Q3. apply Hko2; auto.
  - (* a following sibling of the target *)
    cbn [sib_ok] in Hsib. subst sib.
    assert (Hin_x : In x (kids g P)) by (rewrite Hk; apply in_or_app; right; right; left; reflexivity).
    destruct (Hwf _ _ Hin_x) as (_ & Hlx).
    assert (Ex : (x =? InvalidIndex) = false).
    { destruct (TI_live_get _ _ _ H Hlx) as (o & Ho & _). apply N.eqb_neq. eapply (R_pos_not_Inv _ _ HR); eauto. }
    rewrite Ex. apply wp_bind. apply wp_ret. rewrite Ex.
    destruct (TI_live_get _ _ _ H HlP) as (po & Hpo & Hlpo).
    destruct (R_kids _ _ HR _ _ Hpo Hlpo) as (_ & _ & _ & Hnd). rewrite Hk in Hnd.
    assert (Hne_xt : x <> target).
    { intros E. subst x. apply NoDup_remove_2 in Hnd. apply Hnd. apply in_or_app. right. left. reflexivity. }
    replace (l1 ++ target :: x :: l2r) with ((l1 ++ [target]) ++ x :: l2r) in Hk by (rewrite <- app_assoc; reflexivity).
    destruct (sibling_links _ _ HR P _ x l2r HlP Hk) as (xo & Hxo & _ & Hxpar & _ & Hxnx & _).
    apply wp_bind, wp_get. rewrite (TI_ObjectAt _ _ _ H Hlx). apply wp_bind. cbn [need]. apply wp_ret.
    apply wp_bind. apply wp_rdf. exists xo. split; [exact Hxo|]. rewrite Hxnx.
    apply wp_bind. apply wp_rdf. exists xo. split; [exact Hxo|]. rewrite Hxpar.
    apply wp_bind, wp_get. rewrite (TI_ObjectAt _ _ _ H HlP).
    eapply (move_wp _ P x target (l1 ++ [target]) l2r _ s g); [exact H|exact Hk|exact Hlt|exact Hne_tP| |].
    { intros Hd. apply Hne_xt. symmetry. eapply (sibling_not_desc _ _ HR P x target); eauto. }
    intros t2 g2 H2 Hk2 Hkt2 Hko2 Hrl2 Hroots2 Hpf2.
    assert (HK2 : K t2 g2).
    { apply (K_move s g P x target (l1 ++ [target]) l2r t2 H HK Hk Hlt Hne_tP Htg); auto.
      left. exists l1. reflexivity. }
    apply (Hrec _ g2 l2r m2 (hd InvalidIndex l2r)); auto; try (cbn [length]; lia).
    + apply Hrl2; [exact HSP|exact HSt|]. eapply desc_step; [exact HSP|exact Hin_x].
    + rewrite Hk2, <- app_assoc. reflexivity.
    + destruct GP as [gp|]; cbn [ctx] in Hctx |- *.
      * assert (Hin_P : In P (kids g gp)) by (rewrite Hctx; apply in_or_app; right; left; reflexivity).
        rewrite Hko2; [exact Hctx| |].
        -- intros E. apply (R_child_neq_parent _ _ HR _ _ Hin_P). symmetry. exact E.
        -- intros E. apply (grandchild_neq _ _ _ _ _ H Hin_P Hin_t). symmetry. exact E.
      * destruct Hctx as (Hroot & Em). split; [|exact Em]. intros q Hq.
        destruct (N.eq_dec q P) as [->|Hq1].
        -- rewrite Hk2 in Hq. apply (Hroot P). rewrite Hk. apply in_app_or in Hq. apply in_or_app. destruct Hq; [left|right; right]; assumption.
        -- destruct (N.eq_dec q target) as [->|Hq2].
           ++ rewrite Hkt2 in Hq. apply in_app_or in Hq. destruct Hq as [Hq|[Hq|[]]]; [apply (Hroot target Hq)|].
              subst x. apply (R_child_neq_parent _ _ HR _ _ Hin_x). reflexivity.
           ++ rewrite Hko2 in Hq by assumption. apply (Hroot q Hq).
    + destruct l2r as [|y l2rr]; cbn [sib_ok hd]; [left|]; reflexivity.
    + apply tgt_pframe; auto.
    + intros q Q1 Q2 Q3. apply Hko2; auto.
Qed.

(** ---- connectNonNamedObjArg ---- *)
Definition apost : pstate -> ghost -> N -> option N -> list N -> pstate -> ghost -> list N -> Prop :=
  gpost (fun s g => K (p_tree s) g) (fun s s' => pframe (p_tree s) (p_tree s')).

Lemma arg_spec fuel obj arg s g l1 l2 GP m1 m2 :
  TI s g -> glive g obj -> kids g obj = l1 ++ arg :: l2 -> ctx g obj GP m1 m2 -> K (p_tree s) g ->
  wp (fuel <= length l2 + length m2)%nat (connectNonNamedObjArg fuel obj arg) s (fun r s' => exists g' l2' m2',
     apost s g obj GP m1 s' g' m2' /\ kids g' obj = l1 ++ arg :: l2' /\
     (length l2' <= length l2)%nat /\ (length m2' <= length m2)%nat /\ others g g' obj arg GP).
Proof.
  intros H Hl Hk Hctx HK. unfold connectNonNamedObjArg.
  pose proof (ti_R _ _ H) as HR.
  assert (Hin : In arg (kids g obj)) by (rewrite Hk; apply in_or_app; right; left; reflexivity).
  destruct ((R_gwf _ _ HR) _ _ Hin) as (_ & Hla).
  assert (Hdone : forall (PP : Prop) (r : pres), wp PP (ret r) s (fun r s' => exists g' l2' m2',
     apost s g obj GP m1 s' g' m2' /\ kids g' obj = l1 ++ arg :: l2' /\
     (length l2' <= length l2)%nat /\ (length m2' <= length m2)%nat /\ others g g' obj arg GP)).
  { intros PP r. apply wp_ret. exists g, l2, m2. split; [|split; [exact Hk|split; [lia|split; [lia|intros q _ _ _; reflexivity]]]].
    split; auto. split; [apply reloc_refl|]. split; auto. split; auto. split; [apply pframe_refl|exact HK]. }
  destruct (TI_live_get _ _ _ H Hla) as (ao & Hao & Hlao).
  apply wp_bind. apply wp_rdo. exists ao. split; [exact Hao|].
  pose proof (ti_info _ _ H _ _ Hao Hlao) as Hinfo.
  destruct (opInfo (o_infoIndex ao)) as [[[op fl] af]|] eqn:Erow; [|contradiction].
  apply wp_bind. eapply wp_info; [exact Erow|].
  apply wp_bind, wp_get.
  destruct (hasFlag fl aml_pOpFlagNamed || negb (o_tableHandle ao =? p_handle s)); [apply Hdone|].
  assert (Hlive : live (p_tree s) arg) by (apply (R_live_glive _ _ HR); exact Hla).
  apply wp_bind. eapply wp_tq; [apply (NumArgs_spec _ _ HR arg Hlive)|].
  destruct ((argCount af <=? termArgIndex af) || (termArgIndex af <? N.of_nat (length (kids g arg)))) eqn:Ecnt; [apply Hdone|].
  assert (Htg : tgt s arg).
  { exists ao. split; [exact Hao|]. intros E. rewrite E in Erow. rewrite (np_row _ _ _ Erow) in Ecnt. discriminate. }
  unfold attachSiblingsAsArgs.
  destruct (sibling_links _ _ HR obj l1 arg l2 Hl Hk) as (ao' & Hao' & _ & _ & _ & Hnx & _).
  apply wp_bind. apply wp_rdf. exists ao'. split; [exact Hao'|]. rewrite Hnx.
  eapply wp_weaken; [apply (attach2_spec fuel obj arg (hd InvalidIndex l2) _ s g l1 l2 GP m1 m2 H Hl Hk Hctx)|auto|].
  - destruct l2 as [|y l2']; cbn [sib_ok hd]; [left|]; reflexivity.
  - exact HK.
  - exact Htg.
  - intros r s' (g' & l2' & m2' & F1 & F2 & F3 & F4 & F5 & F6 & F7 & F8 & F9 & F10). exists g', l2', m2'.
    split; [split; auto|]. split; [exact F3|]. split; [exact F8|]. split; [exact F9|exact F10].
Qed.

(** ---- the walk ---- *)
Definition CNN_spec (fuel : nat) : Prop :=
  W_spec (fun s g => K (p_tree s) g) (fun s s' => pframe (p_tree s) (p_tree s')) (connectNonNamedObjArgs fuel) fuel.

Definition NNloop_spec (fuel : nat) : Prop :=
  L_spec (fun s g => K (p_tree s) g) (fun s s' => pframe (p_tree s) (p_tree s')) (connectNonNamed_loop fuel) fuel.

Lemma arg_body fuel : B_spec (fun s g => K (p_tree s) g) (fun s s' => pframe (p_tree s) (p_tree s')) fuel
  (fun obj a k => mlet r <~ connectNonNamedObjArg fuel obj a ;; if pres_eqb r RFailed then ret RFailed else k).
Proof.
  intros obj a k s1 g1 l r1 GP m1 m2 P Q H1 Hl1 Hk1 Hctx1 HK1 Hf HQ.
  apply wp_bind. eapply wp_weaken; [apply (arg_spec fuel obj a s1 g1 l r1 GP m1 m2 H1 Hl1 Hk1 Hctx1 HK1)|exact Hf|].
  intros r0 s2 (g2 & r2 & m2b & A & Hk2 & L1 & L2 & HF2). destruct (HQ s2 g2 r2 m2b A Hk2 L1 L2 HF2) as (Wk & Qr).
  destruct (pres_eqb r0 RFailed); [apply wp_ret; apply Qr|exact Wk].
Qed.

Lemma nonNamed_all : forall fuel, CNN_spec fuel /\ NNloop_spec fuel.
Proof.
  induction fuel as [|fuel (IHc & IHl)].
  - split; intro; intros; cbn [connectNonNamedObjArgs connectNonNamed_loop]; apply wp_outOfFuel.
    + intros n Hn. pose proof (sz_pos _ _ _ Hn). lia.
    + intros m Hm. lia.
  - split.
    + intros x s g GP m1 m2. cbn [connectNonNamedObjArgs]. apply (walk_step _ _ pf_refl pf_trans (connectNonNamedObjArgs fuel) _ fuel IHl).
    + intros obj argIndex s g GP m1 m2 l r. cbn [connectNonNamed_loop].
      apply (loop_step _ _ pf_refl pf_trans _ _ fuel _ (arg_body fuel) IHc IHl).
Qed.
End Inv.

Theorem connectNonNamedObjArgs_keeps (K : T -> ghost -> Prop) : Kmove K -> forall fuel x s g,
  TI s g -> glive g x -> groot g x -> K (p_tree s) g ->
  match connectNonNamedObjArgs fuel x s with
  | Ok (_, s') => exists g', TI s' g' /\ pframe (p_tree s) (p_tree s') /\ (forall y, glive g y -> glive g' y) /\
                             (forall r, groot g r -> groot g' r) /\ K (p_tree s') g'
  | Panic => False
  | OutOfFuel => True
  end.
Proof.
  intros K_move fuel x s g H Hl Hroot HK.
  pose proof (proj1 (nonNamed_all K K_move fuel) x s g None [] [] H Hl (conj Hroot eq_refl) HK) as W. unfold wp in W.
  destruct (connectNonNamedObjArgs fuel x s) as [[r s']| |]; auto.
  destruct W as (g' & m2' & (A & Rl & _ & Hroots & Hpf & E) & _). exists g'. split; [exact A|]. split; [exact Hpf|].
  split; [intros y; apply (reloc_glive _ _ _ y Rl)|auto].
Qed.
