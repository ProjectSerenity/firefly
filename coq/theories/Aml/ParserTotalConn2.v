(** connectNamedObjArgs (the pass after the first pass) never panics and keeps C13's tree relation.
    The pass walks the tree bottom-up, copies the name of every named object out of its name-path argument and moves
    following siblings below the object as its arguments (attachSiblingsAsArgs: detach + append).  The forest is
    rearranged only inside the subtree the call was made for ([reloc]).  The proof carries an abstract invariant [J]
    that survives the two things the pass does - writing the name of a named object, moving the sibling that follows
    a named object to the end of that object's child list - and the measure of the fuel. *)
From Coq Require Import NArith Arith List Bool Lia.
From Coq Require Import ZifyBool ZifyN ZifyNat.
From FF Require Import Lib.Word Gen.Consts_device_acpi_aml Gen.Consts_aml_tree Aml.Stream Aml.Lex Aml.LexProofs
  Aml.Tree Aml.Parser Aml.ParserProofs Aml.TreeSpec Aml.TreeProofs Aml.TreeProofsOps Aml.TreeProofsFind
  Aml.ParserTotalTree Aml.ParserTotalTree2 Aml.ParserTotalLex Aml.ParserTotalTable Aml.ParserTotalBase Aml.ParserTotalLeaf
  Aml.ParserTotalConn Aml.ParserTotalNonNamed Aml.ParserTotalReloc.
Import ListNotations.
Local Open Scope N_scope.

(** a named object of the table being parsed that already has children (its name path at least) *)
Definition tgt_ok (s : pstate) (g : ghost) (a : N) : Prop :=
  exists ao op fl af, tget (p_tree s) a = Some ao /\ opInfo (o_infoIndex ao) = Some (op, fl, af) /\
    hasFlag fl aml_pOpFlagNamed = true /\ o_tableHandle ao = p_handle s /\ o_opcode ao <> aml_pOpIntScopeBlock /\
    kids g a <> [].

Lemma TI_set_name s g p nm : TI s g -> TI (with_tree s (tset (p_tree s) p (set_name nm))) g.
Proof.
  intros [A B C]. constructor; pcbn.
  - apply R_set_name. exact A.
  - apply info_valid_tset; [exact B| |].
    + intros o Ho Hlo. cbn [o_infoIndex set_name]. apply (B _ _ Ho Hlo).
    + intros o _. cbn [o_opcode set_name]. tauto.
  - apply pool_ok_tset; auto.
Qed.

Lemma rev_four (l : list N) : (4 <= length l)%nat -> exists b3 b2 b1 b0 r, rev l = b3 :: b2 :: b1 :: b0 :: r.
Proof.
  intros H. rewrite <- rev_length in H. destruct (rev l) as [|b3 [|b2 [|b1 [|b0 r]]]]; cbn [length] in H; try lia. eauto 6.
Qed.

Section Conn2.
Variable J : pstate -> ghost -> Prop.
Hypothesis J_setname : forall s g a nm, TI s g -> J s g -> tgt_ok s g a ->
  J (with_tree s (tset (p_tree s) a (set_name nm))) g.
Hypothesis J_attach : forall s g parent target sib l1 l2 (t2 : T) g2, TI s g -> J s g ->
  kids g parent = l1 ++ target :: sib :: l2 -> tgt_ok s g target ->
  pframe (p_tree s) t2 -> shape_eq g g2 -> roots_iff g g2 ->
  (forall q, kids g2 q = (if q =? parent then remove1 sib (kids g parent) else kids g q) ++ (if q =? target then [sib] else [])) ->
  J (with_tree s t2) g2.

Lemma attach_spec2 : forall fuel parent target sib n s g l1 l2,
  TI s g -> J s g -> kids g parent = l1 ++ target :: l2 -> sib = hd InvalidIndex l2 -> tgt_ok s g target ->
  wp (fuel <= length l2)%nat (attachSiblings_go fuel parent target sib n false) s (fun r s' =>
    exists g' l2', TI s' g' /\ J s' g' /\ reloc g g' (desc g parent) /\ kids g' parent = l1 ++ target :: l2' /\
      (length l2' <= length l2)%nat /\ (forall q, q <> parent -> q <> target -> kids g' q = kids g q)).
Proof.
  induction fuel as [|fuel IH]; intros parent target sib n s g l1 l2 H HJ Hk Hs Htg; cbn [attachSiblings_go].
  { apply wp_outOfFuel. lia. }
  pose proof (ti_R _ _ H) as HR.
  destruct (n =? 0).
  { apply wp_ret. exists g, l2. split; auto. split; auto. split; [apply reloc_refl|]. split; [exact Hk|]. split; [lia|auto]. }
  rewrite andb_false_r. apply wp_bind. apply wp_ret.
  destruct (N.eqb_spec sib InvalidIndex) as [Es|Es].
  { apply wp_ret. exists g, l2. split; auto. split; auto. split; [apply reloc_refl|]. split; [exact Hk|]. split; [lia|auto]. }
  destruct (hd_nonempty _ _ _ (eq_sym Hs) Es) as (l2' & El2). subst l2.
  assert (Hin_t : In target (kids g parent)) by (rewrite Hk; apply in_or_app; right; left; reflexivity).
  assert (Hin_s : In sib (kids g parent)) by (rewrite Hk; apply in_or_app; right; right; left; reflexivity).
  destruct (R_In_kids _ _ HR _ _ Hin_s) as ((po & Hpo & Hlpo) & so & Hso & Hlso & Hspar).
  destruct (R_kids _ _ HR _ _ Hpo Hlpo) as (_ & _ & Hch & Hnd).
  rewrite Hk in Hch, Hnd.
  assert (Hnode : node (p_tree s) sib parent (last (l1 ++ [target]) InvalidIndex) (hd InvalidIndex l2')).
  { apply (chain_mid (p_tree s) parent (l1 ++ [target]) sib l2'). rewrite <- app_assoc. exact Hch. }
  destruct Hnode as (so' & Hso' & _ & _ & _ & Hnext). assert (so' = so) by congruence. subst so'.
  pose proof (R_gwf _ _ HR) as Hwf. destruct (Hwf _ _ Hin_s) as (Hlp & Hls). destruct (Hwf _ _ Hin_t) as (_ & Hlt).
  apply wp_bind, wp_get. rewrite (TI_ObjectAt _ _ _ H Hls). apply wp_bind. cbn [need]. apply wp_ret.
  apply wp_bind. apply wp_rdf. exists so. split; [exact Hso|]. rewrite Hnext.
  apply wp_bind. apply wp_rdf. exists so. split; [exact Hso|]. rewrite Hspar.
  apply wp_bind, wp_get. rewrite (TI_ObjectAt _ _ _ H Hlp).
  assert (Hnotin : ~ In sib (l1 ++ target :: l2')).
  { replace (l1 ++ target :: sib :: l2') with ((l1 ++ [target]) ++ sib :: l2') in Hnd by (rewrite <- app_assoc; reflexivity).
    apply NoDup_remove_2 in Hnd. rewrite <- app_assoc in Hnd. exact Hnd. }
  assert (Hndst : ~ desc g sib target).
  { intros Hd. pose proof (sibling_not_desc _ _ HR parent sib target Hin_s Hin_t Hd) as E. subst target.
    apply Hnotin. apply in_or_app. right. left. reflexivity. }
  apply (move_gen _ parent sib target _ s g); [exact H|exact Hin_s|exact Hlt|exact Hndst|].
  intros t2 g2 H2 S2 R2 _ _ Hpf2 Hk2.
  assert (HJ2 : J (with_tree s t2) g2) by (eapply (J_attach s g parent target sib l1 l2'); eauto).
  assert (Hne_tp : target <> parent) by (eapply (R_child_neq_parent _ _ HR); eauto).
  assert (Hkp2 : kids g2 parent = l1 ++ target :: l2').
  { rewrite Hk2, N.eqb_refl. apply N.eqb_neq in Hne_tp. rewrite N.eqb_sym, Hne_tp, app_nil_r, Hk.
    replace (l1 ++ target :: sib :: l2') with ((l1 ++ [target]) ++ sib :: l2') by (rewrite <- app_assoc; reflexivity).
    rewrite remove1_split; [rewrite <- app_assoc; reflexivity|].
    intros Hi. apply Hnotin. apply in_app_or in Hi. apply in_or_app.
    destruct Hi as [Hi|[<-|[]]]; [left; exact Hi|right; left; reflexivity]. }
  assert (Htg2 : tgt_ok (with_tree s t2) g2 target).
  { destruct Htg as (ao & op & fl & af & Hao & Erow & En & Eh & Eo & Ek).
    destruct (proj2 Hpf2 _ _ Hao) as (ao2 & Hao2 & (E1 & E2 & E3 & _)).
    exists ao2, op, fl, af. split; [exact Hao2|]. rewrite E2, E3, E1. repeat (split; [assumption|]).
    rewrite Hk2, N.eqb_refl. intros F. apply app_eq_nil in F. destruct F as (_ & F). discriminate. }
  assert (HSp : desc g parent parent) by constructor.
  assert (HSt : desc g parent target) by (apply (desc_step g parent parent target HSp Hin_t)).
  assert (HSs : desc g parent sib) by (apply (desc_step g parent parent sib HSp Hin_s)).
  assert (Hrl : reloc g g2 (desc g parent)) by (apply (reloc_of_move g g2 parent sib target _ S2 HSp HSt HSs Hin_s Hk2)).
  eapply wp_weaken; [apply (IH parent target (hd InvalidIndex l2') (n - 1) _ g2 l1 l2' H2 HJ2 Hkp2 eq_refl Htg2)|cbn [length]; lia|].
  intros r s' (g' & l2'' & F1 & F0 & F2 & F3 & F4 & F5). exists g', l2''. split; auto. split; auto.
  split; [eapply reloc_chain; [apply closed_desc|exact HSp|exact Hrl|exact F2]|]. split; [exact F3|]. split; [cbn [length]; lia|].
  intros q Hq1 Hq2. rewrite (F5 q Hq1 Hq2), Hk2. apply N.eqb_neq in Hq1. apply N.eqb_neq in Hq2. rewrite Hq1, Hq2. apply app_nil_r.
Qed.

Definition cpost (g : ghost) (x : N) (r : pres) (s' : pstate) : Prop := exists g', TI s' g' /\ J s' g' /\ reloc g g' (desc g x).

(** the walk from [x] with the measure: it runs out of fuel only if the fuel is below twice the size of the subtree *)
Definition CN_specF (fuel : nat) : Prop := forall x s g, TI s g -> J s g -> glive g x ->
  wp (PO g x fuel) (connectNamedObjArgs fuel x) s (cpost g x).

Definition loop_specF (fuel : nat) : Prop := forall obj argIndex s g l r, TI s g -> J s g -> glive g obj ->
  kids g obj = l ++ r -> argIndex = last l InvalidIndex ->
  wp (PL g l r fuel) (connectNamed_loop fuel obj argIndex) s (cpost g obj).

Lemma step_CNF fuel : loop_specF fuel -> CN_specF (S fuel).
Proof.
  intros IHl x s g H HJ Hl. cbn [connectNamedObjArgs].
  pose proof (ti_R _ _ H) as HR.
  apply wp_bind. apply wp_objectAt'; [apply (TI_ObjectAt _ _ _ H Hl)|].
  destruct (TI_live_get _ _ _ H Hl) as (o & Ho & Hlo).
  apply wp_bind. apply wp_rdf. exists o. split; [exact Ho|].
  destruct (R_kids _ _ HR _ _ Ho Hlo) as (_ & Hlast & _). rewrite Hlast.
  eapply wp_weaken; [apply (IHl x _ s g (kids g x) [] H HJ Hl (eq_sym (app_nil_r _)) eq_refl)| |auto].
  intros HP n Hn. inversion Hn as [x' n' Hs]; subst. specialize (HP n' Hs). cbn [length] in HP. lia.
Qed.

Lemma step_loopF fuel : CN_specF fuel -> loop_specF fuel -> loop_specF (S fuel).
Proof.
  intros IHc IHl obj argIndex s g l r H HJ Hl Hkl Harg. cbn [connectNamed_loop].
  destruct (N.eqb_spec argIndex InvalidIndex) as [Ei|Ei].
  { apply wp_ret. exists g. split; auto. split; auto. apply reloc_refl. }
  assert (Hne : l <> []) by (intros ->; cbn in Harg; contradiction).
  destruct (last_split l InvalidIndex Hne) as (l' & El). rewrite <- Harg in El. subst l. rewrite <- app_assoc in Hkl. cbn [app] in Hkl.
  assert (Hin : In argIndex (kids g obj)) by (rewrite Hkl; apply in_or_app; right; left; reflexivity).
  pose proof (ti_R _ _ H) as HR. pose proof (R_gwf _ _ HR) as Hwf. destruct (Hwf _ _ Hin) as (_ & Hla).
  apply wp_bind. apply wp_objectAt'; [apply (TI_ObjectAt _ _ _ H Hla)|].
  destruct (TI_live_get _ _ _ H Hla) as (ao0 & Hao0 & Hlao0).
  apply wp_bind. apply wp_rdf. exists ao0. split; [exact Hao0|]. rewrite (R_index _ _ HR _ _ Hao0).
  apply wp_bind. eapply wp_weaken; [apply (IHc argIndex s g H HJ Hla)| |].
  { intros HP m Hm. destruct (szl_snoc _ _ _ _ Hm) as (a & n & A & B & ->). specialize (HP n B). lia. }
  intros res s1 (g1 & H1 & HJ1 & Rl1).
  set (S := desc g obj).
  assert (HSo : S obj) by constructor.
  assert (HSa : S argIndex) by (apply (desc_step g obj obj argIndex HSo Hin)).
  assert (Rl1' : reloc g g1 S).
  { eapply reloc_lift; [|exact Rl1]. intros y Hy. eapply desc_in_closed; [apply closed_desc|exact HSa|exact Hy]. }
  assert (Hk1 : kids g1 obj = l' ++ argIndex :: r).
  { rewrite <- Hkl. apply (rl_out _ _ _ Rl1). apply (child_not_desc _ _ HR). exact Hin. }
  assert (Hl1 : glive g1 obj) by (apply (reloc_glive _ _ _ obj Rl1); exact Hl).
  assert (Hla1 : glive g1 argIndex) by (apply (reloc_glive _ _ _ argIndex Rl1); exact Hla).
  (* the subtrees of the children before [argIndex] are untouched by the walk below [argIndex] *)
  pose proof (elder_same (p_tree s) g g1 obj l' argIndex r HR Hl Hkl (fun q Hq _ => rl_out _ _ _ Rl1 q Hq)) as Hsame1.
  assert (Htr1 : forall a, szl g l' a -> szl g1 l' a) by (intros a Ha; apply (proj2 (sz_same g g1) l' a Ha Hsame1)).
  destruct (negb (pres_eqb res ROk)).
  { apply wp_ret. exists g1. split; auto. }
  assert (Hcont : forall s2 g2 r2, TI s2 g2 -> J s2 g2 -> reloc g g2 S -> kids g2 obj = l' ++ argIndex :: r2 ->
     (length r2 <= length r)%nat -> (forall a, szl g l' a -> szl g2 l' a) ->
     wp (PL g (l' ++ [argIndex]) r (Datatypes.S fuel)) (mlet prev <~ rdf argIndex o_prev ;; connectNamed_loop fuel obj prev) s2 (cpost g obj)).
  { intros s2 g2 r2 H2 HJ2 Rl2 Hk2 Hlen2 Htr2. pose proof (ti_R _ _ H2) as HR2.
    assert (Hlo2 : glive g2 obj) by (apply (reloc_glive _ _ _ obj Rl2); exact Hl).
    destruct (sibling_links _ _ HR2 obj l' argIndex r2 Hlo2 Hk2) as (ao2 & Hao2 & _ & _ & Hprev & _).
    apply wp_bind. apply wp_rdf. exists ao2. split; [exact Hao2|]. rewrite Hprev.
    eapply wp_weaken; [apply (IHl obj (last l' InvalidIndex) s2 g2 l' (argIndex :: r2) H2 HJ2 Hlo2 Hk2 eq_refl)| |].
    - intros HP m Hm. destruct (szl_snoc _ _ _ _ Hm) as (a & n & A & B & ->). specialize (HP a (Htr2 a A)). pose proof (sz_pos _ _ _ B). cbn [length] in HP. lia.
    - intros r0 s' (g' & F1 & F0 & F2). exists g'. split; auto. split; auto.
      eapply reloc_chain; [apply closed_desc|exact HSo|exact Rl2|exact F2]. }
  pose proof (ti_R _ _ H1) as HR1.
  destruct (TI_live_get _ _ _ H1 Hla1) as (ao & Hao & Hlao).
  apply wp_bind. apply wp_rdo. exists ao. split; [exact Hao|].
  pose proof (ti_info _ _ H1 _ _ Hao Hlao) as Hinfo.
  destruct (opInfo (o_infoIndex ao)) as [[[op flags] argFlags]|] eqn:Erow; [|contradiction].
  apply wp_bind. eapply wp_info; [exact Erow|].
  apply wp_bind, wp_get.
  destruct (negb (hasFlag flags aml_pOpFlagNamed) || negb (o_tableHandle ao =? p_handle s1) || (o_first ao =? InvalidIndex) ||
            (o_opcode ao =? aml_pOpIntScopeBlock)) eqn:Ec.
  { apply (Hcont s1 g1 r H1 HJ1 Rl1' Hk1 (Nat.le_refl _) Htr1). }
  apply orb_false_elim in Ec. destruct Ec as (Ec & Esb). apply orb_false_elim in Ec. destruct Ec as (Ec & Efirst).
  apply orb_false_elim in Ec. destruct Ec as (Enamed & Ehandle).
  apply negb_false_iff in Enamed. apply negb_false_iff in Ehandle. apply N.eqb_eq in Ehandle. apply N.eqb_neq in Esb.
  apply N.eqb_neq in Efirst.
  destruct (R_kids _ _ HR1 _ _ Hao Hlao) as (Hfirst & _).
  destruct (hd_nonempty _ _ _ (eq_sym Hfirst) Efirst) as (krest & Ek).
  assert (Htg1 : tgt_ok s1 g1 argIndex).
  { exists ao, op, flags, argFlags. repeat (split; [assumption|]). rewrite Ek. discriminate. }
  assert (Hin_n : In (o_first ao) (kids g1 argIndex)) by (rewrite Ek; left; reflexivity).
  destruct ((R_gwf _ _ HR1) _ _ Hin_n) as (_ & Hln).
  apply wp_bind. apply wp_objectAt'; [apply (TI_ObjectAt _ _ _ H1 Hln)|].
  destruct (TI_live_get _ _ _ H1 Hln) as (no & Hno & Hlno).
  apply wp_bind. apply wp_rdo. exists no. split; [exact Hno|].
  destruct (valueBytes no) as [[tbl sl]|] eqn:Ev.
  2:{ apply wp_ret. exists g1. split; auto. }
  destruct (s_len sl <? aml_amlNameLen) eqn:Elen.
  { apply wp_ret. exists g1. split; auto. }
  apply N.ltb_ge in Elen.
  assert (Hsl : slice_ok (p_tables s1) tbl sl).
  { pose proof (pool_ok_get _ _ _ _ (ti_pool _ _ H1) Hno) as Hv. unfold valueBytes in Ev.
    destruct (o_value no) as [[n|tb sl0|i|f]|]; try discriminate. inversion Ev; subst. exact Hv. }
  destruct (slice_bytes_ok s1 tbl sl Hsl) as (bytes & Eb & Hblen).
  apply wp_bind. eapply wp_bytesOf; [exact Eb|].
  destruct (rev_four bytes) as (b3 & b2 & b1 & b0 & rb & Erev).
  { rewrite Hblen. unfold aml_amlNameLen in Elen. lia. }
  apply wp_bind. unfold setNameFrom. rewrite Erev.
  apply wp_wrf; [eauto|].
  set (s2 := with_tree s1 (tset (p_tree s1) argIndex (set_name (b0, b1, b2, b3)))).
  assert (H2 : TI s2 g1) by (apply TI_set_name; exact H1).
  assert (HJ2 : J s2 g1) by (apply J_setname; auto).
  pose proof (ti_R _ _ H2) as HR2.
  assert (Hlive2 : live (p_tree s2) argIndex) by (apply (R_live_glive _ _ HR2); exact Hla1).
  apply wp_bind. eapply wp_tq; [apply (NumArgs_spec _ _ HR2 argIndex Hlive2)|].
  destruct ((N.of_nat (length (kids g1 argIndex)) =? argCount argFlags) || (argCount argFlags <=? termArgIndex argFlags)).
  { apply (Hcont s2 g1 r H2 HJ2 Rl1' Hk1 (Nat.le_refl _) Htr1). }
  (* attachSiblingsAsArgs *)
  apply wp_bind. unfold attachSiblingsAsArgs.
  destruct (TI_live_get _ _ _ H2 Hl1) as (oo & Hoo & Hloo).
  destruct (R_kids _ _ HR2 _ _ Hoo Hloo) as (_ & _ & Hch & _). rewrite Hk1 in Hch.
  destruct (chain_mid _ _ _ _ _ Hch) as (ao2 & Hao2 & _ & _ & _ & Hnext).
  apply wp_bind. apply wp_rdf. exists ao2. split; [exact Hao2|]. rewrite Hnext.
  assert (Htg2 : tgt_ok s2 g1 argIndex).
  { exists (set_name (b0, b1, b2, b3) ao), op, flags, argFlags. unfold s2. cbn [p_tree with_tree p_handle].
    rewrite get_tset, N.eqb_refl, Hao. cbn [option_map]. split; [reflexivity|]. cbn [set_name o_infoIndex o_tableHandle o_opcode].
    repeat (split; [assumption|]). rewrite Ek. discriminate. }
  eapply wp_weaken; [apply (attach_spec2 fuel obj argIndex (hd InvalidIndex r) _ s2 g1 l' r H2 HJ2 Hk1 eq_refl Htg2)| |].
  { intros HP m Hm. destruct (szl_snoc _ _ _ _ Hm) as (a & n & A & B & ->). pose proof (sz_pos _ _ _ B). lia. }
  intros r0 s3 (g3 & r3 & H3 & HJ3 & Rl3 & Ek3 & Hlen3 & Hoth3).
  assert (Rl3' : reloc g g3 S).
  { eapply reloc_chain; [apply closed_desc|exact HSo|exact Rl1'|]. eapply reloc_lift; [|exact Rl3].
    intros y Hy. exact Hy. }
  destruct (negb (pres_eqb r0 ROk)).
  { apply wp_ret. exists g3. split; auto. }
  apply (Hcont s3 g3 r3 H3 HJ3 Rl3' Ek3 Hlen3).
  intros a Ha. apply (proj2 (sz_same g1 g3) l' a (Htr1 a Ha)).
  intros c y Hc Hd. apply Hoth3.
  - (* y is below a child of obj: it is not obj *)
    intros ->. apply (child_not_desc _ _ HR1 obj c); [rewrite Hk1; apply in_or_app; left; exact Hc|exact Hd].
  - intros ->. apply (elder_neq (p_tree s) g obj l' argIndex r c HR Hl Hkl Hc).
    apply (siblings_disjoint2 (p_tree s1) g1 obj c argIndex argIndex HR1); [rewrite Hk1; apply in_or_app; left; exact Hc|
      rewrite Hk1; apply in_or_app; right; left; reflexivity|exact Hd|apply desc_refl].
Qed.

Lemma conn_allF : forall fuel, CN_specF fuel /\ loop_specF fuel.
Proof.
  induction fuel as [|fuel (IHc & IHl)].
  - split; intro; intros; cbn [connectNamedObjArgs connectNamed_loop]; apply wp_outOfFuel.
    + intros n Hn. pose proof (sz_pos _ _ _ Hn). lia.
    + intros m Hm. lia.
  - split; [apply step_CNF; exact IHl|apply step_loopF; assumption].
Qed.

(** the walk without the measure (fuel exhaustion allowed) *)
Definition CN_spec2 (fuel : nat) : Prop := forall x s g, TI s g -> J s g -> glive g x ->
  wp True (connectNamedObjArgs fuel x) s (fun r s' => exists g', TI s' g' /\ J s' g' /\ reloc g g' (desc g x)).

Lemma conn_all2 : forall fuel, CN_spec2 fuel.
Proof.
  intros fuel x s g H HJ Hl.
  eapply wp_weaken; [apply (proj1 (conn_allF fuel) x s g H HJ Hl)|auto|]. intros r s' Hp. exact Hp.
Qed.
End Conn2.

Theorem connectNamedObjArgs_never_panics : forall fuel x s g,
  R (p_tree s) g -> info_valid (p_tree s) -> pool_ok (p_tables s) (p_tree s) -> glive g x ->
  match connectNamedObjArgs fuel x s with
  | Ok (_, s') => exists g', R (p_tree s') g' /\ info_valid (p_tree s') /\ pool_ok (p_tables s') (p_tree s')
  | Panic => False
  | OutOfFuel => True
  end.
Proof.
  intros fuel x s g HR Hi Hp Hl.
  pose proof (conn_all2 (fun _ _ => True) (fun _ _ _ _ _ _ _ => I) (fun _ _ _ _ _ _ _ _ _ _ _ _ _ _ _ _ _ => I)
                fuel x s g (mkTI _ _ HR Hi Hp) I Hl) as W. unfold wp in W.
  destruct (connectNamedObjArgs fuel x s) as [[r s']| |]; auto.
  destruct W as (g' & [A B C] & _). eauto.
Qed.
