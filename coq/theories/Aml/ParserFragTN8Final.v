(** C11 (fragment TN8): the recogniser [in_fragment_TN8] of programs of any number of tables with the items of F8, and
    [parse_encode_TN8], the instance of [parse_encode_many] (ParserFragF3Final.v) for them.

    As TN (see ParserFragTNFinal.v) with the items of the fragment F8 in every table: in addition to TN, package elements
    may be packages (nested to any depth).  All tables but the last one are without Scope directives; 6 + the sum of the
    encoded table lengths is below 2^28.  Subsumes F8 and TN. *)
From Coq Require Import NArith List Bool.
From FF Require Import Aml.Grammar Aml.WfProgram Aml.ParserFragF0 Aml.ParserFragArgs Aml.ParserFragF1
  Aml.ParserFragF1Final Aml.ParserFragScope Aml.ParserFragF3Final Aml.ParserFragF8Final Aml.ParserFragTNTop.
Import ListNotations.
Local Open Scope N_scope.

Fixpoint f8_tables (l : list (list ast)) : option (list (list titem)) :=
  match l with
  | [] => Some []
  | p :: r => match f8_titems p, f8_tables r with Some ts, Some tss => Some (ts :: tss) | _, _ => None end
  end.

Definition in_fragment_TN8 (tables : list (list ast)) : bool :=
  match tables with
  | [] => false
  | _ => match f8_tables tables with
         | Some tss => forallb noscope (removelast tss) && (6 + lenN (flat_map encode_table tables) <? 0x10000000)
         | None => false
         end
  end.

Theorem parse_encode_TN8 : forall tables,
  wf_program tables = true -> in_fragment_TN8 tables = true -> parse_encode_statement tables.
Proof. exact (parse_encode_many f8_item f8_item_ast). Qed.
