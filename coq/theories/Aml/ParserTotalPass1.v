(** The first pass establishes the shape facts of the later passes: Method typing [TM2], parents of the
    pending deferred objects [PEND], the root facts, and the structure of the Scope directives
    ([first_pass_establishes]).  With the theorems of the later passes this gives the end-to-end results: the postcondition
    of parseAML_body ([parseAML_body_post], [parseAML_body_post3]) and [parseAML_body_never_panics] /
    [parseAML_never_panics], with an example that meets their hypotheses. *)
From Coq Require Import NArith Arith List Bool Lia.
From Coq Require Import ZifyBool ZifyN ZifyNat.
From FF Require Import Lib.Word Gen.Consts_device_acpi_aml Gen.Consts_aml_tree Aml.Stream Aml.Lex Aml.LexProofs
  Aml.Tree Aml.Parser Aml.ParserProofs Aml.TreeSpec Aml.TreeProofs Aml.TreeProofsOps Aml.TreeProofsFind Aml.TreeProofsAnc
  Aml.ParserTotalTree Aml.ParserTotalTree2 Aml.ParserTotalLex Aml.ParserTotalTable Aml.ParserTotalBase Aml.ParserTotalLeaf
  Aml.ParserTotalFrame Aml.ParserTotalFirst Aml.ParserTotalConn Aml.ParserTotalNonNamed Aml.ParserTotalCalls Aml.ParserTotalReloc
  Aml.ParserTotalMerge Aml.ParserTotalResolve Aml.ParserTotalDefer Aml.ParserTotalDeferW Aml.ParserTotalDeferV
  Aml.ParserTotalTyped Aml.ParserTotalShape Aml.ParserTotalChain Aml.ParserTotalConn2 Aml.ParserTotalPass2
  Aml.ParserTotalBenign Aml.ParserTotalFirst2 Aml.ParserTotalNameLex Aml.ParserTotalGoodPath.
Import ListNotations.
Local Open Scope N_scope.

(** the Scope-directive shape without the two facts about names (name of the directive has no lead character, four-byte
    paths start with a lead character, \ or ^) *)
Definition sdirw (X : N -> Prop) (t : T) (g : ghost) (x : N) (xinfo : N) : Prop :=
  (forall op fl af, opInfo xinfo = Some (op, fl, af) -> hasFlag fl aml_pOpFlagNamed = false) /\
  exists n c no co tbl sl,
    kids g x = [n; c] /\ kids g n = [] /\ ~ X n /\
    tget t n = Some no /\ o_opcode no = aml_pOpIntNamePath /\
    o_value no = Some (VBytes tbl sl) /\
    tget t c = Some co /\ o_opcode co = aml_pOpIntScopeBlock.

Definition tySw (X : N -> Prop) (s : pstate) (g : ghost) : Prop :=
  forall x xo, tget (p_tree s) x = Some xo -> o_opcode xo = aml_pOpScope -> o_tableHandle xo = p_handle s ->
    name_lead (o_name xo) = false /\ sdirw X (p_tree s) g x (o_infoIndex xo).

Definition LI (X : N -> Prop) (s : pstate) (g : ghost) : Prop :=
  glive g 0 /\ groot g 0 /\ is_sb s 0 /\ Forall (is_sb s) (p_scopeStack s) /\ TM2 (p_tree s) g /\ PEND s g /\ tySw X s g /\
  (forall n, X n -> glive g n).

(** ---- table facts ---- *)
Lemma namepath_plain (o : Obj) : o_opcode o = aml_pOpIntNamePath -> rowis aml_pOpIntNamePath o -> plain o.
Proof.
  intros Hop Hr. unfold rowis in Hr. match type of Hr with ?x = _ => destruct x as [k|] eqn:Ek; [|discriminate] end.
  injection Hr as Hr. vm_compute in Ek. injection Ek as Ek. subst k. unfold plain, nodefer. rewrite <- Hr, Hop.
  split; [intros op fl af E; vm_compute in E; injection E as _ <- <-; split; [reflexivity|]; intros k Hk;
          assert (Hc : k = 0 \/ k = 1 \/ k = 2 \/ k = 3 \/ k = 4 \/ k = 5 \/ k = 6 \/ k = 7) by lia;
          destruct Hc as [->|[->|[->|[->|[->|[->|[->| ->]]]]]]]; vm_compute; discriminate|].
  split; [intros op fl af E; vm_compute in E; injection E as _ <- _; reflexivity|]. split; discriminate.
Qed.

Lemma byteprefix_plain (o : Obj) : o_opcode o = aml_pOpBytePrefix -> rowis aml_pOpBytePrefix o -> plain o.
Proof.
  intros Hop Hr. unfold rowis in Hr. match type of Hr with ?x = _ => destruct x as [k|] eqn:Ek; [|discriminate] end.
  injection Hr as Hr. vm_compute in Ek. injection Ek as Ek. subst k. unfold plain, nodefer. rewrite <- Hr, Hop.
  split; [intros op fl af E; vm_compute in E; injection E as _ <- <-; split; [reflexivity|]; intros k Hk;
          assert (Hc : k = 0 \/ k = 1 \/ k = 2 \/ k = 3 \/ k = 4 \/ k = 5 \/ k = 6 \/ k = 7) by lia;
          destruct Hc as [->|[->|[->|[->|[->|[->|[->| ->]]]]]]]; vm_compute; discriminate|].
  split; [intros op fl af E; vm_compute in E; injection E as _ <- _; reflexivity|]. split; discriminate.
Qed.

Lemma simple_from_check af : forallb (fun k => (argCount af <=? k) ||
    (let ty := argType af k in (ty =? aml_pArgTypePkgLen) || (ty =? aml_pArgTypeNameString) || (ty =? aml_pArgTypeByteData) || (ty =? aml_pArgTypeTermList)))
    idx8 = true -> simple_from af 0.
Proof.
  intros H k _ Hk. pose proof (argCount_le8 af) as Hc. assert (Hk8 : k < 8) by lia.
  pose proof (proj1 (forallb_forall _ _) H k (In_idx8 k Hk8)) as Hb. cbv beta zeta in Hb.
  apply orb_prop in Hb. destruct Hb as [Hb|Hb]; [apply N.leb_le in Hb; lia|]. unfold simple_ty.
  repeat (apply orb_prop in Hb; destruct Hb as [Hb|Hb]); apply N.eqb_eq in Hb; auto.
Qed.

Lemma method_shape : simple_from methodAF 0 /\ otys methodAF 0 = [aml_pArgTypeNameString; aml_pArgTypeByteData; aml_pArgTypeTermList].
Proof. split; [apply simple_from_check; vm_compute; reflexivity|vm_compute; reflexivity]. Qed.

Definition scopeIdx : N := match opcodeTableIndex aml_pOpScope true with Some i => i | None => 0 end.
Definition scopeAF : N := match opInfo scopeIdx with Some (_, _, af) => af | None => 0 end.
Definition scopeFl : N := match opInfo scopeIdx with Some (_, fl, _) => fl | None => 0 end.

Lemma scope_row : opcodeTableIndex aml_pOpScope true = Some scopeIdx /\ opInfo scopeIdx = Some (aml_pOpScope, scopeFl, scopeAF) /\
  hasFlag scopeFl aml_pOpFlagDeferParsing = false /\ hasFlag scopeFl aml_pOpFlagNamed = false /\
  simple_from scopeAF 0 /\ otys scopeAF 0 = [aml_pArgTypeNameString; aml_pArgTypeTermList].
Proof.
  split; [vm_compute; reflexivity|]. split; [vm_compute; reflexivity|]. split; [vm_compute; reflexivity|]. split; [vm_compute; reflexivity|].
  split; [apply simple_from_check; vm_compute; reflexivity|vm_compute; reflexivity].
Qed.

Lemma npc_row_nodefer (o : Obj) : o_opcode o = aml_pOpIntNamePathOrMethodCall -> rowis (o_opcode o) o -> ~ deferrow o.
Proof.
  intros Hop Hr (op & fl & af & Hrow & Hf). rewrite Hop in Hr. unfold rowis in Hr. match type of Hr with ?x = _ => destruct x as [k|] eqn:Ek; [|discriminate] end.
  injection Hr as Hr. vm_compute in Ek. injection Ek as Ek. subst k. rewrite <- Hr in Hrow.
  vm_compute in Hrow. injection Hrow as _ <- _. vm_compute in Hf. discriminate.
Qed.

Lemma isflag_deferrow s x o : tget (p_tree s) x = Some o -> isflag s x = true -> deferrow o.
Proof.
  intros Ho Hf. unfold isflag in Hf. rewrite Ho in Hf. destruct (opInfo (o_infoIndex o)) as [[[op fl] af]|] eqn:E; [|discriminate].
  apply andb_prop in Hf. destruct Hf as (Hf & _). exists op, fl, af. auto.
Qed.

Lemma Forall2_inv2 {A B} (P : A -> B -> Prop) x y l objs : Forall2 P (x :: y :: l) objs ->
  exists a b r, objs = a :: b :: r /\ P x a /\ P y b /\ Forall2 P l r.
Proof. intros H. inversion H as [|? a ? l1 Pa F1]; subst. inversion F1 as [|? b ? r Pb F2]; subst. exists a, b, r. auto. Qed.

(** ---- old objects keep their facts over one parseNextObject ---- *)
Lemma keepw_sameobj (P : N -> Prop) s g s' i o : keepw P s g s' -> glive g i -> tget (p_tree s) i = Some o ->
  exists o', tget (p_tree s') i = Some o' /\ sameobj o o' /\ o_name o' = o_name o /\ (~ P i -> o_value o' = o_value o).
Proof.
  intros K Hl Ho. destruct (K i o Hl Ho) as (o' & Ho' & (E1 & E2 & E3 & E4) & V). exists o'. split; [exact Ho'|]. split; [split; auto|auto].
Qed.

Lemma keepw_back (P : N -> Prop) s g s' i o' : FI s g -> keepw P s g s' -> glive g i -> tget (p_tree s') i = Some o' ->
  exists o, tget (p_tree s) i = Some o /\ sameobj o o' /\ o_name o' = o_name o /\ (~ P i -> o_value o' = o_value o).
Proof.
  intros H K Hl Ho'. destruct (FI_live_get _ _ _ H Hl) as (o & Ho & _). destruct (keepw_sameobj P s g s' i o K Hl Ho) as (o2 & Ho2 & A).
  assert (o2 = o') by congruence. subst. exists o. split; [exact Ho|exact A].
Qed.

Lemma is_sb_keep s g s' y : FI s g -> keepw NoP s g s' -> glive g y -> is_sb s y -> is_sb s' y.
Proof.
  intros H K Hl (o & Ho & E). destruct (keepw_sameobj NoP s g s' y o K Hl Ho) as (o' & Ho' & (E1 & _) & _). exists o'. split; [exact Ho'|congruence].
Qed.

Lemma LI_next_holds X s g top rest s' g' :
  FI s g -> LI X s g -> p_scopeStack s = top :: rest -> FI s' g' -> gext g g' ->
  Fw NoP (eq top) s g s' g' -> SSBx s s' -> p_handle s' = p_handle s ->
  (exists xs, newobjs g s' xs /\ forall x, xs = Some x -> ~ glive g x /\ xdesc s g s' g' top x) ->
  LI X s' g'.
Proof.
  intros H (H0 & Hr0 & Hsb0 & Hssb & HTM & HP & HtS & HXs) Est H' G [K Fk0] Hss Hh (xs & Hnew & Hx).
  pose proof (fi_R _ _ H) as HR. pose proof (R_gwf _ _ HR) as Hwf. pose proof (fi_R _ _ H') as HR'.
  assert (Htop_sb : is_sb s top) by (rewrite Est in Hssb; inversion Hssb; auto).
  assert (Hscl : forall y, In y (p_scopeStack s) -> glive g y) by (pose proof (fi_scopes _ _ H) as F; rewrite Forall_forall in F; exact F).
  (* lists of old nodes that are no ScopeBlocks *)
  assert (Hkeepk : forall y yo, glive g y -> tget (p_tree s) y = Some yo -> o_opcode yo <> aml_pOpIntScopeBlock -> kids g' y = kids g y).
  { intros y yo Hy Hyo Hne. destruct (Fk0 y Hy (fun F => F)) as (_ & Hex). apply Hex. intros <-.
    destruct Htop_sb as (o & Ho & E). assert (o = yo) by congruence. subst. contradiction. }
  split; [apply (ge_live _ _ G); exact H0|]. split; [apply (groot_ext g g' 0 G H0 Hr0)|]. split; [apply (is_sb_keep s g s' 0 H K H0 Hsb0)|].
  split.
  { rewrite Forall_forall. intros y Hy. destruct (Hss y Hy) as [A|A]; [|exact A].
    rewrite Forall_forall in Hssb. apply (is_sb_keep s g s' y H K (Hscl y A) (Hssb y A)). }
  split.
  { (* TM2 *)
    intros m mo' Hm' Hop'. assert (Hlm' : o_opcode mo' <> opFreed) by (rewrite Hop'; discriminate).
    destruct (glive_dec g m) as [Hlm|Hnm].
    - destruct (keepw_back NoP s g s' m mo' H K Hlm Hm') as (mo & Hm & (E1 & _) & _).
      assert (Hop : o_opcode mo = aml_pOpMethod) by congruence.
      destruct (HTM m mo Hm Hop) as (a0 & a1 & rest0 & a0o & a1o & v & K1 & K2 & P0 & K4 & K5 & P1).
      assert (Hl0 : glive g a0) by (apply (Hwf m a0); rewrite K1; left; reflexivity).
      assert (Hl1 : glive g a1) by (apply (Hwf m a1); rewrite K1; right; left; reflexivity).
      destruct (keepw_sameobj NoP s g s' a0 a0o K Hl0 K2) as (a0o' & K2' & S0 & _).
      destruct (keepw_sameobj NoP s g s' a1 a1o K Hl1 K4) as (a1o' & K4' & S1 & _ & V1).
      exists a0, a1, rest0, a0o', a1o', v. split; [rewrite (Hkeepk m mo Hlm Hm); [exact K1|rewrite Hop; discriminate]|].
      split; [exact K2'|]. split; [eapply plain_same; eauto|]. split; [exact K4'|]. split; [rewrite V1; [exact K5|intros []]|eapply plain_same; eauto].
    - destruct (Hnew m mo' Hm' Hlm' Hnm) as [E|(Hb & _)]; [|exfalso; apply Hb; left; exact Hop'].
      destruct (Hx m E) as (_ & xo & Hxo & _ & Hrow & _ & _ & Hshape). assert (xo = mo') by congruence. subst xo.
      destruct method_row as (Hmi & Hmrow & _). destruct method_shape as (Hsim & Hot).
      unfold rowis in Hrow. rewrite Hop', Hmi in Hrow. injection Hrow as Hrow.
      destruct (Hshape (or_introl Hop') aml_pOpMethod 33 methodAF) as (objs & Hk & Hf2 & _); [rewrite <- Hrow; exact Hmrow|exact Hsim|vm_compute; reflexivity|].
      rewrite Hot in Hf2. destruct (Forall2_inv2 _ _ _ _ _ Hf2) as (a0 & a1 & l1' & Eobjs & A0 & A1 & _). rewrite Eobjs in Hk.
      destruct A0 as (a0o & Ha0 & N0 & _). destruct (N0 eq_refl) as (_ & Eop0 & Er0 & _).
      destruct A1 as (a1o & Ha1 & _ & B1 & _). destruct (B1 eq_refl) as (_ & Eop1 & Er1 & v & Ev1).
      exists a0, a1, l1', a0o, a1o, v. split; [exact Hk|]. split; [exact Ha0|]. split; [apply namepath_plain; auto|].
      split; [exact Ha1|]. split; [exact Ev1|apply byteprefix_plain; auto]. }
  split.
  { (* PEND *)
    intros x o' Hlx' Ho' Hf'. assert (Hd' : deferrow o') by (eapply isflag_deferrow; eauto).
    destruct (glive_dec g x) as [Hlx|Hnx].
    - destruct (keepw_back NoP s g s' x o' H K Hlx Ho') as (o & Ho & So & _).
      assert (Hf : isflag s x = true) by (rewrite <- Hf'; symmetry; apply (isflag_same s s' x o o' Ho Ho' So Hh)).
      destruct (HP x o Hlx Ho Hf) as (Hpar & Hnp). split; [eapply has_parent_ext; eauto|]. destruct So as (E1 & _). rewrite E1. exact Hnp.
    - assert (Hlo' : o_opcode o' <> opFreed).
      { destruct (R_live_glive _ _ HR' x) as (_ & Hlv). destruct (Hlv Hlx') as (o2 & Ho2 & Hl2). assert (o2 = o') by congruence. subst. exact Hl2. }
      destruct (Hnew x o' Ho' Hlo' Hnx) as [E|(_ & Hb)]; [|contradiction].
      destruct (Hx x E) as (_ & xo & Hxo & Hin & Hrow & _ & _ & _). assert (xo = o') by congruence. subst xo.
      split; [exists top; exact Hin|]. intros Hop. apply (npc_row_nodefer o' Hop Hrow Hd'). }
  split; [|intros n Hn; apply (ge_live _ _ G); apply HXs; exact Hn].
  (* the Scope directives *)
  intros x xo' Hx' Hop' Hhx'. assert (Hlx' : o_opcode xo' <> opFreed) by (rewrite Hop'; discriminate).
  destruct (glive_dec g x) as [Hlx|Hnx].
  - destruct (keepw_back NoP s g s' x xo' H K Hlx Hx') as (xo & Hxo & (E1 & E2 & E3) & Enm & _).
    assert (Hop : o_opcode xo = aml_pOpScope) by congruence. assert (Hhx : o_tableHandle xo = p_handle s) by congruence.
    destruct (HtS x xo Hxo Hop Hhx) as (Hnl & Hnn & n & c & no & co & tbl & sl & K1 & K2 & KX & K3 & K4 & K6 & K8 & K9).
    split; [rewrite Enm; exact Hnl|].
    assert (K4' : o_opcode no <> aml_pOpIntScopeBlock) by (rewrite K4; discriminate).
    assert (Hln : glive g n) by (apply (Hwf x n); rewrite K1; left; reflexivity).
    assert (Hlc : glive g c) by (apply (Hwf x c); rewrite K1; right; left; reflexivity).
    destruct (keepw_sameobj NoP s g s' n no K Hln K3) as (no' & K3' & (F1 & _) & _ & V).
    destruct (keepw_sameobj NoP s g s' c co K Hlc K8) as (co' & K8' & (G1 & _) & _).
    split; [rewrite E2; exact Hnn|]. exists n, c, no', co', tbl, sl.
    split; [rewrite (Hkeepk x xo Hlx Hxo); [exact K1|rewrite Hop; discriminate]|].
    split; [rewrite (Hkeepk n no Hln K3 K4'); exact K2|]. split; [exact KX|]. split; [exact K3'|]. split; [congruence|].
    split; [rewrite V; [exact K6|intros []]|]. split; [exact K8'|congruence].
  - destruct (Hnew x xo' Hx' Hlx' Hnx) as [E|(Hb & _)]; [|exfalso; apply Hb; right; exact Hop'].
    destruct (Hx x E) as (_ & xo & Hxo & _ & Hrow & Hname & Hnameo & Hshape). assert (xo = xo') by congruence. subst xo.
    split.
    { destruct (tget (p_tree s) x) as [o0|] eqn:E0; [|rewrite (Hname eq_refl); reflexivity].
      rewrite (Hnameo o0 eq_refl). reflexivity. }
    destruct scope_row as (Hsi & Hsrow & Hsd & Hsn & Hsim & Hot).
    unfold rowis in Hrow. rewrite Hop', Hsi in Hrow. injection Hrow as Hrow.
    split; [intros op fl af E0; rewrite <- Hrow, Hsrow in E0; injection E0 as _ <- _; exact Hsn|].
    destruct (Hshape (or_intror Hop') aml_pOpScope scopeFl scopeAF) as (objs & Hk & Hf2 & Hn2); [rewrite <- Hrow; exact Hsrow|exact Hsim|exact Hsd|].
    rewrite Hot in Hf2. destruct (Forall2_inv2 _ _ _ _ _ Hf2) as (n & c & l1' & Eobjs & A0 & A1 & F1). inversion F1; subst l1'. rewrite Eobjs in Hk.
    assert (HnX : ~ X n) by (rewrite Eobjs in Hn2; inversion Hn2 as [|? ? Hq _]; subst; intros Hq'; apply Hq; apply HXs; exact Hq').
    destruct A0 as (no & Hn & N0 & _). destruct (N0 eq_refl) as (Kn & Eop0 & _ & tbl & sl & Ev0).
    destruct A1 as (co & Hc & _ & _ & C1). destruct (C1 eq_refl) as (_ & Eop1).
    exists n, c, no, co, tbl, sl. split; [exact Hk|]. split; [exact Kn|]. split; [exact HnX|]. split; [exact Hn|].
    split; [exact Eop0|]. split; [exact Ev0|]. split; [exact Hc|exact Eop1].
Qed.

Lemma LI_stable_holds X s s' g : LI X s g -> p_tree s' = p_tree s -> p_handle s' = p_handle s ->
  (forall y, In y (p_scopeStack s') -> In y (p_scopeStack s)) -> LI X s' g.
Proof.
  intros (H0 & Hr0 & Hsb0 & Hssb & HTM & HP & HtS & HXs) Et Eh Hst.
  split; [exact H0|]. split; [exact Hr0|]. split; [unfold is_sb in *; rewrite Et; exact Hsb0|].
  split; [rewrite Forall_forall in *; intros y Hy; unfold is_sb; rewrite Et; apply Hssb; apply Hst; exact Hy|].
  split; [rewrite Et; exact HTM|]. split; [|split; [|exact HXs]].
  - intros x o Hl Ho Hf. rewrite Et in Ho. apply (HP x o Hl Ho). unfold isflag in *. rewrite Et, Eh in Hf. exact Hf.
  - intros x xo Hx Hop Hh. rewrite Et in Hx. rewrite Eh in Hh. rewrite Et. apply (HtS x xo Hx Hop Hh).
Qed.

(** ---- TM3 through the first pass: the invariant [LI3] = [LI] /\ [TM3] of the object boundaries of parseObjectList ---- *)
Definition LI3 (X : N -> Prop) (s : pstate) (g : ghost) : Prop := LI X s g /\ TM3 (p_tree s) g.

Lemma rowis_np (o : Obj) : rowis aml_pOpIntNamePath o -> o_infoIndex o = npIdx.
Proof. unfold rowis. intros H. assert (E : opcodeTableIndex aml_pOpIntNamePath true = Some npIdx) by (vm_compute; reflexivity). congruence. Qed.
Lemma rowis_bp (o : Obj) : rowis aml_pOpBytePrefix o -> o_infoIndex o = bpIdx.
Proof. unfold rowis. intros H. assert (E : opcodeTableIndex aml_pOpBytePrefix true = Some bpIdx) by (vm_compute; reflexivity). congruence. Qed.

Lemma LI3_next_holds X s g top rest s' g' :
  FI s g -> LI3 X s g -> p_scopeStack s = top :: rest -> FI s' g' -> gext g g' ->
  Fw NoP (eq top) s g s' g' -> SSBx s s' -> p_handle s' = p_handle s ->
  (exists xs, newobjs g s' xs /\ forall x, xs = Some x -> ~ glive g x /\ xdesc s g s' g' top x) ->
  LI3 X s' g'.
Proof.
  intros H (HL & HTM) Est H' G F Hss Hh Hnx. split; [exact (LI_next_holds X s g top rest s' g' H HL Est H' G F Hss Hh Hnx)|].
  unfold TM3.
  destruct HL as (_ & _ & _ & Hssb & _). destruct F as [K Fk0]. destruct Hnx as (xs & Hnew & Hx).
  pose proof (fi_R _ _ H) as HR. pose proof (R_gwf _ _ HR) as Hwf.
  assert (Htop_sb : is_sb s top) by (rewrite Est in Hssb; inversion Hssb; auto).
  assert (Hkeepk : forall y yo, glive g y -> tget (p_tree s) y = Some yo -> o_opcode yo <> aml_pOpIntScopeBlock -> kids g' y = kids g y).
  { intros y yo Hy Hyo Hne. destruct (Fk0 y Hy (fun F => F)) as (_ & Hex). apply Hex. intros <-.
    destruct Htop_sb as (o & Ho & E). assert (o = yo) by congruence. subst. contradiction. }
  intros m mo' Hm' Hop'. assert (Hlm' : o_opcode mo' <> opFreed) by (rewrite Hop'; discriminate).
  destruct (glive_dec g m) as [Hlm|Hnm].
  - destruct (keepw_back NoP s g s' m mo' H K Hlm Hm') as (mo & Hm & (E1 & _) & _).
    assert (Hop : o_opcode mo = aml_pOpMethod) by congruence.
    destruct (HTM m mo Hm Hop) as (a0 & a1 & rest0 & a0o & a1o & v & K1 & K2 & K3 & K4 & K5 & K6 & K7 & K8 & K9).
    assert (Hl0 : glive g a0) by (apply (Hwf m a0); rewrite K1; left; reflexivity).
    assert (Hl1 : glive g a1) by (apply (Hwf m a1); rewrite K1; right; left; reflexivity).
    destruct (keepw_sameobj NoP s g s' a0 a0o K Hl0 K2) as (a0o' & K2' & (S1 & S2 & _) & _).
    destruct (keepw_sameobj NoP s g s' a1 a1o K Hl1 K6) as (a1o' & K6' & (T1 & T2 & _) & _ & V1).
    exists a0, a1, rest0, a0o', a1o', v. split; [rewrite (Hkeepk m mo Hlm Hm); [exact K1|rewrite Hop; discriminate]|].
    split; [exact K2'|]. split; [congruence|]. split; [congruence|].
    split; [rewrite (Hkeepk a0 a0o Hl0 K2); [exact K5|rewrite K3; discriminate]|].
    split; [exact K6'|]. split; [congruence|]. split; [congruence|]. rewrite V1; [exact K9|intros []].
  - destruct (Hnew m mo' Hm' Hlm' Hnm) as [E|(Hb & _)]; [|exfalso; apply Hb; left; exact Hop'].
    destruct (Hx m E) as (_ & xo & Hxo & _ & Hrow & _ & _ & Hshape). assert (xo = mo') by congruence. subst xo.
    destruct method_row as (Hmi & Hmrow & _). destruct method_shape as (Hsim & Hot).
    unfold rowis in Hrow. rewrite Hop', Hmi in Hrow. injection Hrow as Hrow.
    destruct (Hshape (or_introl Hop') aml_pOpMethod 33 methodAF) as (objs & Hk & Hf2 & _); [rewrite <- Hrow; exact Hmrow|exact Hsim|vm_compute; reflexivity|].
    rewrite Hot in Hf2. destruct (Forall2_inv2 _ _ _ _ _ Hf2) as (a0 & a1 & l1' & Eobjs & A0 & A1 & _). rewrite Eobjs in Hk.
    destruct A0 as (a0o & Ha0 & N0 & _). destruct (N0 eq_refl) as (Kn0 & Eop0 & Er0 & _).
    destruct A1 as (a1o & Ha1 & _ & B1 & _). destruct (B1 eq_refl) as (_ & Eop1 & Er1 & v & Ev1).
    exists a0, a1, l1', a0o, a1o, v. split; [exact Hk|]. split; [exact Ha0|]. split; [exact Eop0|]. split; [apply rowis_np; exact Er0|].
    split; [exact Kn0|]. split; [exact Ha1|]. split; [exact Eop1|]. split; [apply rowis_bp; exact Er1|exact Ev1].
Qed.

Lemma LI3_stable_holds X s s' g : LI3 X s g -> p_tree s' = p_tree s -> p_handle s' = p_handle s ->
  (forall y, In y (p_scopeStack s') -> In y (p_scopeStack s)) -> LI3 X s' g.
Proof. intros (HL & HTM) Et Eh Hst. split; [eapply LI_stable_holds; eauto|rewrite Et; exact HTM]. Qed.


(** ---- the first pass from the initial state of a table ---- *)
Theorem first_pass_establishes : forall tree g earlier handle data fuel,
  R tree g -> info_valid tree -> glive g 0 -> groot g 0 ->
  (exists o, tget tree 0 = Some o /\ o_opcode o = aml_pOpIntScopeBlock) ->
  TM2 tree g -> (forall i o, tget tree i = Some o -> o_tableHandle o <> handle) ->
  image_small data ->
  N.of_nat (length (t_pool tree)) + 4 * N.of_nat (length data) + 4 <= InvalidIndex ->
  match first_pass fuel (init_state tree earlier handle data) with
  | Ok (res, s') => exists g', R (p_tree s') g' /\ info_valid (p_tree s') /\ rok (p_r s') /\ (res = ROk \/ res = RFailed) /\
      (res = ROk -> LI (glive g) s' g' /\ p_scopeStack s' = [])
  | Panic => False
  | OutOfFuel => True
  end.
Proof.
  intros tree g earlier handle data fuel HR Hi H0 Hr0 Hsb HTM Hfresh Him Hcap.
  destruct (init_FI tree g earlier handle data HR Hi H0 Him Hcap) as (HFI & Hroom & _).
  set (s0 := with_scopeStack (init_state tree earlier handle data) [0]) in *.
  assert (HL0 : LI (glive g) s0 g).
  { split; [exact H0|]. split; [exact Hr0|]. split; [exact Hsb|]. split; [constructor; [exact Hsb|constructor]|]. split; [exact HTM|]. split.
    - intros x o _ Ho Hf. exfalso. change (p_tree s0) with tree in Ho. unfold isflag in Hf. change (p_tree s0) with tree in Hf. rewrite Ho in Hf.
      destruct (opInfo (o_infoIndex o)) as [[[op fl] af]|]; [|discriminate]. apply andb_prop in Hf. destruct Hf as (_ & Hf).
      apply N.eqb_eq in Hf. apply (Hfresh x o Ho). exact Hf.
    - split; [|auto]. intros x xo Hx _ Hh. exfalso. apply (Hfresh x xo Hx). exact Hh. }
  pose proof (list_spec2 (LI (glive g)) (LI_next_holds (glive g)) (LI_stable_holds (glive g)) fuel s0 g HFI Hroom HL0) as W. unfold wp in W.
  unfold first_pass, bindM, scopeEnter.
  change (with_scopeStack (init_state tree earlier handle data) (0 :: p_scopeStack (init_state tree earlier handle data))) with s0.
  destruct (parseObjectList fuel s0) as [[res s']| |]; auto.
  destruct W as (g' & F1 & _ & _ & _ & Hres & HLI). exists g'.
  split; [apply (fi_R _ _ F1)|]. split; [apply (fi_info _ _ F1)|]. split; [apply (fi_rok _ _ F1)|]. split; [exact Hres|exact HLI].
Qed.

(** ---- the whole of ParseAML, modulo two facts about the names of the Scope directives of the first pass ---- *)
Definition NAMEOK (X : N -> Prop) (s : pstate) : Prop :=
  (forall n no tbl sl, tget (p_tree s) n = Some no -> ~ X n -> o_opcode no = aml_pOpIntNamePath -> o_value no = Some (VBytes tbl sl) ->
     forall s0 bytes, p_tables s0 = p_tables s -> slice_bytes s0 tbl sl = Ok bytes -> good_path bytes).

Lemma SH_of_LI X s g : LI X s g -> NAMEOK X s -> SH s g.
Proof.
  intros (H0 & Hr0 & Hsb0 & _ & HTM & HP & HtS & _) N2.
  split; [exact H0|]. split; [exact Hr0|]. split; [exact Hsb0|]. split; [|split; [exact HTM|exact HP]].
  intros x xo Hx Hop Hh _. destruct (HtS x xo Hx Hop Hh) as (Hnl & Hnn & n & c & no & co & tbl & sl & K1 & K2 & KX & K3 & K4 & K6 & K8 & K9).
  split; [exact Hnl|]. split; [exact Hnn|]. exists n, c, no, co, tbl, sl.
  split; [exact K1|]. split; [exact K2|]. split; [exact K3|]. split; [rewrite K4; discriminate|]. split; [rewrite K4; discriminate|].
  split; [exact K6|]. split; [apply (N2 n no tbl sl K3 KX K4 K6)|]. split; [exact K8|exact K9].
Qed.

(** ---- the same with a postcondition about the state a successful ParseAML returns (see ParserTotalChain.rest_post) ---- *)
Section Post1.
Variable K : T -> ghost -> Prop.
Hypothesis K_move : Kmove K.
Hypothesis K_upd : Kupd K.
Hypothesis K_walk : forall f4 pf s g s1 g1, WI s g -> parseDeferredBlocks f4 pf 0 s = Ok (ROk, s1) -> WI s1 g1 -> wstep s g s1 g1 -> TM NoX s1 g1 ->
  K (p_tree s) g -> K (p_tree s1) g1.
Variable KI : pstate -> ghost -> Prop.
Hypothesis KI_KS : forall s g, KI s g -> KS s g.
Hypothesis KI_TM : forall s g, KI s g -> TM NoX s g.
Hypothesis KI_loop : forall wf fuel s g, MI KI NoX s g ->
  wp True (resolve_loop fuel wf) s (fun _ s' => exists g', MI KI NoX s' g').
Hypothesis K_start : forall s g, MI KI NoX s g -> K (p_tree s) g.
Variable J : pstate -> ghost -> Prop.
Hypothesis J_SH : forall s g, J s g -> SH s g.
Hypothesis J_conn : forall fuel, CN_spec2 J fuel.
Hypothesis J_KI : forall s g a b c, J s g -> KI (with_counters s a b c) g.
(** [LIx]: an invariant of the object boundaries of the first pass that implies [LI]; [P0]: what it needs of the initial pool *)
Variable LIx : (N -> Prop) -> pstate -> ghost -> Prop.
Variable P0 : T -> ghost -> Prop.
Hypothesis LIx_LI : forall X s g, LIx X s g -> LI X s g.
Hypothesis LIx_init : forall X s g, LI X s g -> P0 (p_tree s) g -> LIx X s g.
Hypothesis LIx_next : forall X s g top rest s' g',
  FI s g -> LIx X s g -> p_scopeStack s = top :: rest -> FI s' g' -> gext g g' ->
  Fw NoP (eq top) s g s' g' -> SSBx s s' -> p_handle s' = p_handle s ->
  (exists xs, newobjs g s' xs /\ forall x, xs = Some x -> ~ glive g x /\ xdesc s g s' g' top x) ->
  LIx X s' g'.
Hypothesis LIx_stable : forall X s s' g, LIx X s g -> p_tree s' = p_tree s -> p_handle s' = p_handle s ->
  (forall y, In y (p_scopeStack s') -> In y (p_scopeStack s)) -> LIx X s' g.
Hypothesis J_start : forall X s g, LIx X s g -> NAMEOK X s -> J s g.

Theorem parseAML_body_post : forall tree g earlier handle data fuel,
  R tree g -> info_valid tree -> glive g 0 -> groot g 0 ->
  (exists o, tget tree 0 = Some o /\ o_opcode o = aml_pOpIntScopeBlock) ->
  TM2 tree g -> P0 tree g -> typed tree -> pool_ok earlier tree ->
  (forall i o, tget tree i = Some o -> o_tableHandle o <> handle) ->
  image_small data ->
  (let L := N.of_nat (length (t_pool tree)) + 4 * N.of_nat (length data) + 2 in
   L + L * (8 * N.of_nat (length data) + 3) + 4 <= InvalidIndex) ->
  match parseAML_body fuel (init_state tree earlier handle data) with
  | Ok (b, s') => tpost K b s'
  | Panic => False
  | OutOfFuel => True
  end.
Proof.
  intros tree g earlier handle data fuel HR Hi H0 Hr0 Hsb HTM HP0 Htyp Hpool Hfresh Him Hcap. cbv zeta in Hcap.
  assert (Hcap0 : N.of_nat (length (t_pool tree)) + 4 * N.of_nat (length data) + 4 <= InvalidIndex) by nia.
  assert (Hnames : forall s1, first_pass fuel (init_state tree earlier handle data) = Ok (ROk, s1) -> NAMEOK (glive g) s1).
  { assert (HGP : GPt (earlier ++ [data]) (glive g) tree).
    { intros n no tbl sl Hn HX Hop _. exfalso. apply HX. apply (R_live_glive _ _ HR). exists no. split; [exact Hn|rewrite Hop; discriminate]. }
    intros s1 E1.
    destruct (init_FI tree g earlier handle data HR Hi H0 Him Hcap0) as (HFI & _).
    assert (Hw : W (earlier ++ [data]) data (init_state tree earlier handle data)).
    { split; [reflexivity|]. split; [|exact (fi_rok _ _ HFI)].
      unfold init_state. cbn [p_r with_r]. rewrite setPkgEnd_data, init_reader_eq. reflexivity. }
    destruct (first_pass_good (earlier ++ [data]) data (glive g) (last_table earlier data) fuel _ _ _ Hw HGP E1) as (Ht1 & Hg1).
    intros n no tbl sl Hn HX Hop Hv s0 bytes Hs0 Hb. apply (Hg1 n no tbl sl Hn HX Hop Hv s0 bytes); [rewrite Hs0; exact Ht1|exact Hb]. }
  destruct (init_FI tree g earlier handle data HR Hi H0 Him Hcap0) as (HFI & Hroom & _).
  set (s0 := with_scopeStack (init_state tree earlier handle data) [0]) in *.
  assert (Hinv0 : Inv (earlier ++ [data]) s0).
  { destruct Him as (Hb & Hl). assert (Him' : image_ok data) by (split; [exact Hb|unfold two32 in *; lia]).
    destruct (init_state_Inv tree earlier handle data Him' Hpool) as [A1 A2 A3 A4 A5]. constructor; auto. }
  assert (HLI0 : LI (glive g) s0 g).
  { split; [exact H0|]. split; [exact Hr0|]. split; [exact Hsb|]. split; [constructor; [exact Hsb|constructor]|]. split; [exact HTM|]. split.
    - intros x o _ Ho Hf. exfalso. change (p_tree s0) with tree in Ho. unfold isflag in Hf. change (p_tree s0) with tree in Hf. rewrite Ho in Hf.
      destruct (opInfo (o_infoIndex o)) as [[[op fl] af]|]; [|discriminate]. apply andb_prop in Hf. destruct Hf as (_ & Hf).
      apply N.eqb_eq in Hf. apply (Hfresh x o Ho). exact Hf.
    - split; [|auto]. intros x xo Hx _ Hh. exfalso. apply (Hfresh x xo Hx). exact Hh. }
  assert (HLx0 : LIx (glive g) s0 g) by (apply LIx_init; [exact HLI0|exact HP0]).
  pose proof (list_spec2 (LIx (glive g)) (LIx_next (glive g)) (LIx_stable (glive g)) fuel s0 g HFI Hroom HLx0) as W2.
  rewrite parseAML_body_rest2. unfold first_pass in Hnames. unfold bindM, scopeEnter in *.
  change (with_scopeStack (init_state tree earlier handle data) (0 :: p_scopeStack (init_state tree earlier handle data))) with s0 in *.
  unfold wp in W2.
  destruct (parseObjectList fuel s0) as [[r1 s1]| |] eqn:E1; auto.
  destruct W2 as (g1 & F1 & _ & HPhi & Hlen & Hres & HLI).
  pose proof (fi_R _ _ F1) as A1. pose proof (fi_info _ _ F1) as A2. pose proof (fi_rok _ _ F1) as A3.
  destruct Hres as [ -> | -> ]; cbn [pres_eqb].
  2:{ unfold ret. exists g1. destruct (hoare_parseObjectList (earlier ++ [data]) fuel s0 _ s1 Hinv0 E1) as ([B1 B2 B3 B4 B5] & _).
      split; [exact A1|]. split; [exact A2|]. split; [rewrite B1; exact B5|discriminate]. }
  destruct (HLI eq_refl) as (HL1 & Hst1).
  destruct (hoare_parseObjectList (earlier ++ [data]) fuel s0 _ s1 Hinv0 E1) as (I1 & _).
  assert (Ht1 : typed (p_tree s1)) by (apply (parseObjectList_tyk fuel s0 _ s1 E1); exact Htyp).
  assert (El0 : r_len (p_r s0) = N.of_nat (length data)).
  { unfold s0, init_state. cbn [p_r with_scopeStack with_r]. rewrite (proj2 (setPkgEnd_off _ _)). rewrite init_reader_eq. reflexivity. }
  apply (rest2_post (earlier ++ [data]) K K_move K_upd K_walk KI KI_KS KI_TM KI_loop K_start J J_SH J_conn J_KI fuel s1 g1 A1 A2 A3 Hst1 I1);
    [apply (J_start (glive g)); [exact HL1|apply Hnames; reflexivity]|exact Ht1|].
  assert (Hlp : lp s1 <= N.of_nat (length (t_pool tree)) + 4 * N.of_nat (length data) + 2).
  { unfold Phi, lp, rem in HPhi. pose proof A3 as (_ & _ & O1). change (p_tree s0) with tree in HPhi.
    unfold lp. rewrite Hlen, El0 in *. lia. }
  assert (El1 : r_len (p_r s1) = N.of_nat (length data)).
  { rewrite Hlen. exact El0. }
  rewrite El1. nia.
Qed.
End Post1.

(** the instance with [K] = "slot 0 holds a ScopeBlock": a successful ParseAML returns a pool whose root is again a live parentless
    ScopeBlock in slot 0 and in which every name-path-or-call object carries a []byte *)
Definition KR : T -> ghost -> Prop := fun t _ => exists o, tget t 0 = Some o /\ o_opcode o = aml_pOpIntScopeBlock.

Lemma KR_move : Kmove KR.
Proof.
  intros s g par x target pre post t2 _ (o & Ho & Hop) _ _ _ _ _ g2 _ _ _ _ Hpf.
  destruct (proj2 Hpf _ _ Ho) as (o2 & Ho2 & (E1 & _)). exists o2. split; [exact Ho2|congruence].
Qed.
Lemma KR_upd : Kupd KR.
Proof.
  intros t g p o f _ (ro & Hro & Hrop) Ho Hop _ _. exists ro. split; [|exact Hrop].
  rewrite get_tset. destruct (N.eqb_spec 0 p) as [<-|_]; [|exact Hro].
  exfalso. assert (ro = o) by congruence. subst. rewrite Hop in Hrop. vm_compute in Hrop. discriminate.
Qed.
Lemma KR_walk (f4 pf : nat) s g s1 g1 : WI s g -> parseDeferredBlocks f4 pf 0 s = Ok (ROk, s1) -> WI s1 g1 -> wstep s g s1 g1 -> TM NoX s1 g1 ->
  KR (p_tree s) g -> KR (p_tree s1) g1.
Proof.
  intros H _ _ S1 _ (o & Ho & Hop).
  assert (Hl : glive g 0).
  { apply (R_live_glive _ _ (fi_R _ _ H)). exists o. split; [exact Ho|rewrite Hop; discriminate]. }
  destruct (ws_keep _ _ _ _ S1 0 o Hl Ho) as (o' & Ho' & (E1 & _) & _). exists o'. split; [exact Ho'|congruence].
Qed.

(** ---- the whole of ParseAML: no hypothesis about the run is left; a successful run returns a pool whose root is again a live
     parentless ScopeBlock in slot 0, with the []byte typing and the Method typing [TM3] ---- *)
Definition K3 : T -> ghost -> Prop := fun t g => KR t g /\ TM3 t g.

Lemma K3_move : Kmove K3.
Proof.
  intros s g par x target pre post t2 HT (H1 & H2) Hk Hl Hne Htg Hp g2 HT2 A B C Hpf.
  split; [apply (KR_move s g par x target pre post t2 HT H1 Hk Hl Hne Htg Hp HT2 A B C Hpf)
         |apply (TM3_move s g par x target pre post t2 HT H2 Hk Hl Hne Htg Hp HT2 A B C Hpf)].
Qed.
Lemma K3_upd : Kupd K3.
Proof.
  intros t g p o f HR (H1 & H2) Ho Hop A B. split; [apply (KR_upd t g p o f HR H1 Ho Hop A B)|apply (TM3_upd t g p o f HR H2 Ho Hop A B)].
Qed.

Theorem parseAML_body_post3 : forall tree g earlier handle data fuel,
  R tree g -> info_valid tree -> glive g 0 -> groot g 0 ->
  (exists o, tget tree 0 = Some o /\ o_opcode o = aml_pOpIntScopeBlock) ->
  TM3 tree g -> typed tree -> pool_ok earlier tree ->
  (forall i o, tget tree i = Some o -> o_tableHandle o <> handle) ->
  image_small data ->
  (let L := N.of_nat (length (t_pool tree)) + 4 * N.of_nat (length data) + 2 in
   L + L * (8 * N.of_nat (length data) + 3) + 4 <= InvalidIndex) ->
  match parseAML_body fuel (init_state tree earlier handle data) with
  | Ok (b, s') => tpost K3 b s'
  | Panic => False
  | OutOfFuel => True
  end.
Proof.
  intros tree g earlier handle data fuel HR Hi H0 Hr0 Hsb HTM.
  apply (parseAML_body_post K3 K3_move K3_upd
           (fun f4 pf s g s1 g1 H E H1 S1 T1 HK => conj (KR_walk f4 pf s g s1 g1 H E H1 S1 T1 (proj1 HK)) (TM_TM3 s1 g1 T1))
           KS3 (fun s g H => proj1 H) (fun s g H => TM3_TM s g (proj2 H)) KS3_loop
           (fun s g HM => conj (mi_sb0 _ _ _ _ HM) (proj2 (mi_K _ _ _ _ HM)))
           SH3 (fun s g H => proj1 H) SH3_conn
           SH3_KS3
           LI3 TM3 (fun X s g H => proj1 H) (fun X s g H HP => conj H HP) LI3_next_holds LI3_stable_holds
           (fun X s g HL HN => conj (SH_of_LI X s g (proj1 HL) HN) (proj2 HL))
           tree g earlier handle data fuel HR Hi H0 Hr0 Hsb (TM3_TM2 _ _ HTM) HTM).
Qed.

Theorem parseAML_body_never_panics : forall tree g earlier handle data fuel,
  R tree g -> info_valid tree -> glive g 0 -> groot g 0 ->
  (exists o, tget tree 0 = Some o /\ o_opcode o = aml_pOpIntScopeBlock) ->
  TM3 tree g -> typed tree -> pool_ok earlier tree ->
  (forall i o, tget tree i = Some o -> o_tableHandle o <> handle) ->
  image_small data ->
  (let L := N.of_nat (length (t_pool tree)) + 4 * N.of_nat (length data) + 2 in
   L + L * (8 * N.of_nat (length data) + 3) + 4 <= InvalidIndex) ->
  match parseAML_body fuel (init_state tree earlier handle data) with
  | Ok (_, s') => exists g', R (p_tree s') g' /\ info_valid (p_tree s') /\ pool_ok (p_tables s') (p_tree s')
  | Panic => False
  | OutOfFuel => True
  end.
Proof.
  intros tree g earlier handle data fuel HR Hi H0 Hr0 Hsb HTM Htyp Hpool Hfresh Him Hcap.
  pose proof (parseAML_body_post3 tree g earlier handle data fuel HR Hi H0 Hr0 Hsb HTM Htyp Hpool Hfresh Him Hcap) as W.
  destruct (parseAML_body fuel (init_state tree earlier handle data)) as [[b s']| |]; auto.
  destruct W as (g' & A & B & C & _). exists g'. auto.
Qed.

(** ParseAML itself (the fuel the model passes is [parse_fuel]) *)
Theorem parseAML_never_panics : forall tree g earlier handle data,
  R tree g -> info_valid tree -> glive g 0 -> groot g 0 ->
  (exists o, tget tree 0 = Some o /\ o_opcode o = aml_pOpIntScopeBlock) ->
  TM3 tree g -> typed tree -> pool_ok earlier tree ->
  (forall i o, tget tree i = Some o -> o_tableHandle o <> handle) ->
  image_small data ->
  (let L := N.of_nat (length (t_pool tree)) + 4 * N.of_nat (length data) + 2 in
   L + L * (8 * N.of_nat (length data) + 3) + 4 <= InvalidIndex) ->
  match parseAML tree earlier handle data with
  | Ok (_, s') => exists g', R (p_tree s') g' /\ info_valid (p_tree s') /\ pool_ok (p_tables s') (p_tree s')
  | Panic => False
  | OutOfFuel => True
  end.
Proof. intros. unfold parseAML. apply (parseAML_body_never_panics tree g earlier handle data); assumption. Qed.


(** ---- the hypotheses are satisfiable: a pool that holds just the root scope, the table While (Zero) { } ---- *)
Definition ex1_ops : list op := [ OpNewNamed opScopeBlock 0 (0x5c, 0, 0, 0) ].
Definition ex1_tree : T := match run (@NewObjectTree value) ex1_ops with Ok t => t | _ => NewObjectTree end.
Definition ex1_ghost : ghost := arun ghost0 ex1_ops.
Definition ex1_image : list N := table_image [0xa2; 0x02; 0x00].

Lemma ex1_legal : legal_seq ghost0 ex1_ops.
Proof.
  unfold ex1_ops. cbn [legal_seq]. split; [|exact I]. cbn [legal].
  split; [vm_compute; discriminate | split; [first [left; vm_compute; discriminate | right; vm_compute; reflexivity] | intros _; vm_compute; reflexivity]].
Qed.

Lemma ex1_R : R ex1_tree ex1_ghost.
Proof.
  destruct (run_R ex1_ops (@NewObjectTree value) ghost0 R_empty ex1_legal) as (t' & Hrun & HR').
  unfold ex1_tree, ex1_ghost. rewrite Hrun. exact HR'.
Qed.

Lemma parseAML_hyps_example :
  exists (tree : T) (g : ghost) (data : list N),
    R tree g /\ info_valid tree /\ glive g 0 /\ groot g 0 /\
    (exists o, tget tree 0 = Some o /\ o_opcode o = aml_pOpIntScopeBlock) /\
    TM3 tree g /\ typed tree /\ pool_ok [] tree /\
    (forall i o, tget tree i = Some o -> o_tableHandle o <> 1) /\
    image_small data /\
    (let L := N.of_nat (length (t_pool tree)) + 4 * N.of_nat (length data) + 2 in
     L + L * (8 * N.of_nat (length data) + 3) + 4 <= InvalidIndex) /\
    match parseAML_body 200 (init_state tree [] 1 data) with Ok (b, s') => b = true /\ lp s' = 4 | _ => False end.
Proof.
  exists ex1_tree, ex1_ghost, ex1_image.
  assert (Hall : forall (P : N -> Obj -> Prop), (forall o, nth_error (t_pool ex1_tree) 0 = Some o -> P 0 o) -> forall i o, tget ex1_tree i = Some o -> P i o).
  { intros P HP. apply pool_cases. intros n o Hn. destruct n as [|n]; [apply HP; exact Hn|]. vm_compute in Hn. destruct n; discriminate. }
  split; [exact ex1_R|].
  split; [unfold info_valid; apply (Hall (fun i o => o_opcode o <> opFreed -> opInfo (o_infoIndex o) <> None)); intros o Ho _; vm_compute in Ho; inversion Ho; subst o; vm_compute; discriminate|].
  split; [split; [vm_compute; reflexivity|vm_compute; intuition discriminate]|].
  split; [apply groot_chk; vm_compute; reflexivity|].
  split; [eexists; split; vm_compute; reflexivity|].
  split; [unfold TM3; apply (Hall (fun m mo => o_opcode mo = aml_pOpMethod -> mtyped3 ex1_tree ex1_ghost m)); intros o Ho Hop; vm_compute in Ho; inversion Ho; subst o; vm_compute in Hop; discriminate|].
  split; [unfold typed; apply (Hall (fun i o => o_opcode o <> opFreed -> o_opcode o = aml_pOpIntNamePathOrMethodCall -> exists tbl sl, o_value o = Some (VBytes tbl sl)));
          intros o Ho _ Hop; vm_compute in Ho; inversion Ho; subst o; vm_compute in Hop; discriminate|].
  split; [unfold pool_ok; rewrite Forall_forall; intros o Hin; destruct (In_nth_error _ _ Hin) as (n & Hn);
          destruct n as [|n]; [vm_compute in Hn; inversion Hn; subst o; exact I|vm_compute in Hn; destruct n; discriminate]|].
  split; [apply (Hall (fun i o => o_tableHandle o <> 1)); intros o Ho; vm_compute in Ho; inversion Ho; subst o; vm_compute; discriminate|].
  split; [split; [repeat constructor; vm_compute; reflexivity|vm_compute; discriminate]|].
  split; [vm_compute; discriminate|].
  vm_compute. split; reflexivity.
Qed.
