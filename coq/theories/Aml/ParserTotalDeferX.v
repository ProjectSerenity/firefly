(** parseDeferredBlocks: the steps of parseNextObject, of the term-list and call-argument loops and of
    parseTarget. *)
From Coq Require Import NArith Arith List Bool Lia.
From Coq Require Import ZifyBool ZifyN ZifyNat.
From FF Require Import Lib.Word Gen.Consts_device_acpi_aml Gen.Consts_aml_tree Aml.Stream Aml.Lex Aml.LexProofs
  Aml.Tree Aml.Parser Aml.ParserProofs Aml.TreeSpec Aml.TreeProofs Aml.TreeProofsOps Aml.TreeProofsFind Aml.TreeProofsAnc
  Aml.ParserTotalTree Aml.ParserTotalTree2 Aml.ParserTotalLex Aml.ParserTotalTable Aml.ParserTotalBase Aml.ParserTotalLeaf
  Aml.ParserTotalFrame Aml.ParserTotalLeaf2 Aml.ParserTotalFirst Aml.ParserTotalConn Aml.ParserTotalReloc Aml.ParserTotalDefer.
Import ListNotations.
Local Open Scope N_scope.

Section StepX.
Variable tbls : list (list N).
Notation IV := (Inv tbls).

Lemma step_Dnext fuel : D_objargs tbls fuel -> D_name tbls fuel -> D_next tbls (S fuel).
Proof.
  intros IHo IHn s g top rest H I0 H0 Est Hroom HTM Hnnp. cbn [parseNextObject].
  pose proof (fi_rok _ _ H) as Hrok. pose proof (roomD_lp _ _ Hroom) as Hlp.
  pose proof (fi_R _ _ H) as HR. pose proof (R_gwf _ _ HR) as Hwf.
  pose proof (scope_topD _ _ _ _ H Est) as Htop.
  wbi tbls I0. apply wp_get. intros _.
  wbi tbls I0. apply wp_nextop; auto. intros nextOp ok r1 Hadv Hok Hnok I1.
  set (s1 := with_r s r1) in *.
  assert (H1 : FD s1 g) by (apply FI_adv; auto).
  assert (F1 : Fr NoP (eq top) NoP s g s1 g) by (eapply Fr_tree_eq; [apply Fr_refl|reflexivity]).
  destruct ok.
  - destruct (Hok eq_refl) as (Hlt & Hop & idx & Hidx & Hbad). clear Hok Hnok.
    assert (A1 : at_ s s1 1 0).
    { eapply at_r; [apply at_refl; auto|destruct Hadv as ((_ & E & _) & _); exact E|lia|destruct Hadv as (_ & _ & L); exact L]. }
    pose proof (at_Psi _ _ _ _ A1) as P1.
    destruct (nextOp =? aml_pOpNoop).
    { apply wp_ret. exists g. split; [exact H1|]. split; [eapply at_ExtD; [exact A1|apply gext_refl]|]. split; [exact F1|].
      split; [lia|]. intros _. split; [lia|]. split; [eapply TM_tree_eq; [exact HTM|reflexivity]|reflexivity]. }
    cbn [negb].
    destruct (valid_op _ _ Hop Hidx Hbad) as (Hnk & Hidx').
    eapply (new_off_step tbls (eq top) nextOp _ 1 _ s g s1); [exact H1|exact I1|exact F1|exact A1|exact Hnk| |].
    { unfold lp in *. unfold s1. pcbn. lia. }
    intros p t2 g2 po s3 H3 I3 Hext2 Hfresh2 Hlive2 Hroot2 Hkids2 Hks2 Hlv2 Hpo Hp3 Hpop Hpval Hpidx F3 A3.
    assert (Est3 : p_scopeStack s3 = top :: rest) by exact Est.
    assert (Htop2 : glive g2 top) by (apply (ge_live _ _ Hext2); exact Htop).
    wbi tbls I3. eapply wp_scopeCurrent; [exact Est3|]. intros _.
    rewrite (FI_ObjectAt _ _ _ H3 Htop2).
    wbi tbls I3. eapply (append_new_step top p _ 1 s g s3 g2); [exact HR|exact HTM|exact Hnnp|exact Htop|exact H0|exact H3|exact Hext2|
      exact Hfresh2|exact Hlive2|exact Hroot2|exact Hkids2|exact Hks2|exact Hlv2|exact Hp3|exact F3|exact A3|].
    intros t4 g4 s4 H4 Hext4 Hpf4 F4 A4 Hktop4 Hkp4 Hlive4 H04 Hptop (po4 & Hpo4 & Eop4 & Eii4) HTM4 Hnota4 I4.
    pose proof (at_Psi _ _ _ _ A4) as P4.
    cbn [o_opcode o_infoIndex set_amlOffset] in Eop4, Eii4. rewrite Hpop in Eop4.
    eapply wp_weaken; [apply (IHo p s4 g4 H4 I4 H04 Hlive4)| |].
    + unfold roomD in *. lia.
    + exact HTM4.
    + intros co Hco Hcop. right. assert (co = po4) by congruence. subst co. split; [|exact Hkp4].
      rewrite Eii4. rewrite Eop4 in Hcop. rewrite Hcop in Hpidx. destruct method_row as (Em & _). rewrite Em in Hpidx. inversion Hpidx. reflexivity.
    + intros _. exists top. rewrite Hktop4. apply in_or_app. right. left. reflexivity.
    + exact Hnota4.
    + auto.
    + intros res s' (g' & G1 & G2 & G3 & G4 & G5 & G6 & G7). exists g'. split; [exact G1|].
      split; [eapply ExtD_trans; [eapply at_ExtD; [exact A4|exact Hext4]|exact G2]|].
      split.
      { (* the parent of the new object is the scope: its list has only grown *)
        assert (G3' : Fr (eq p) (eq p) (eq top) s4 g4 s' g').
        { apply (Fr_weaken (eq p) (eq p) (eq p) (eq p) (fun y => hasfl s4 p /\ In p (kids g4 y)) (eq top) s4 g4 s' g'); [auto|auto| |exact G3].
          intros y Hy (_ & Hin).
          eapply (R_parent_unique _ _ (fi_R _ _ H4)); [|exact Hin]. rewrite Hktop4. apply in_or_app. right. left. reflexivity. }
        assert (F' : Fr NoP (eq top) (eq top) s g s' g').
        { eapply Fr_trans; [apply (Fr_weaken NoP NoP (eq top) (eq top) NoP (eq top) s g s4 g4); [auto|auto|intros y _ []|exact F4]|exact G3'| | | |].
          - intros y Hy. apply glive_append. apply (ge_live _ _ Hext2). exact Hy.
          - intros i Hi E. subst i. contradiction.
          - intros y Hy E. subst y. contradiction.
          - auto. }
        apply (Fr_unE NoP (eq top) (eq top) s g s' g' F').
        - intros y. destruct (N.eq_dec top y) as [E|E]; [left; exact E|right; exact E].
        - intros y Hy E. subst y. split; [reflexivity|].
          destruct (G4 top (kids g top) [] ) as (new & Hnew & _); [rewrite Hktop4; reflexivity|].
          exists (p :: new). rewrite Hnew, app_nil_r. reflexivity. }
      split; [lia|]. intros Hr. destruct (G7 Hr) as (K1 & K2 & K3). split; [lia|]. split; [exact K2|].
      rewrite K3. destruct A4 as (_ & _ & _ & _ & A5 & _). exact A5.
  - destruct (Hnok eq_refl) as (Ho1 & Hop). clear Hok Hnok. subst nextOp.
    change (0xffff =? aml_pOpNoop) with false. cbn [negb].
    assert (A1 : at_ s s1 0 0) by (apply at_adv0; [apply at_refl; auto|exact Hadv]).
    pose proof (at_Psi _ _ _ _ A1) as P1.
    assert (Est1 : p_scopeStack s1 = top :: rest) by exact Est.
    eapply wp_weaken; [apply (IHn s1 g top rest H1 I1 H0 Est1)| |].
    + unfold roomD in *. lia.
    + eapply TM_tree_eq; [exact HTM|reflexivity].
    + exact Hnnp.
    + auto.
    + intros res s' (g' & G1 & G2 & G3 & G4 & _ & G5). exists g'. split; [exact G1|].
      split; [eapply ExtD_trans; [eapply at_ExtD; [exact A1|apply gext_refl]|exact G2]|].
      split; [eapply Fr_trans; [exact F1|exact G3|auto|auto|auto|auto]|].
      split; [lia|]. intros Hr. destruct (G5 Hr) as (K1 & K2 & K3 & _). split; [lia|]. split; [exact K2|exact K3].
Qed.

(** the loop body shared by termList_go and callArgs_go: one more object, then the rest *)
Lemma next_then fuel (m : M bool) s g top rest :
  D_next tbls fuel ->
  (forall s1 g1, FD s1 g1 -> IV s1 -> glive g1 0 -> p_scopeStack s1 = top :: rest -> roomD 0 s1 -> TM NoX s1 g1 -> notnp s1 top ->
     wp True m s1 (fun ok s' => exists g', FD s' g' /\ ExtD s1 g1 s' g' /\ Fr NoP (eq top) NoP s1 g1 s' g' /\ Psi s' <= Psi s1 + 1 /\
        (ok = true -> Psi s' <= Psi s1 /\ TM NoX s' g' /\ p_scopeStack s' = p_scopeStack s1))) ->
  FD s g -> IV s -> glive g 0 -> p_scopeStack s = top :: rest -> roomD 0 s -> TM NoX s g -> notnp s top ->
  wp True (mlet res <~ parseNextObject fuel ;; if pres_eqb res ROk then m else ret false) s (fun ok s' => exists g',
    FD s' g' /\ ExtD s g s' g' /\ Fr NoP (eq top) NoP s g s' g' /\ Psi s' <= Psi s + 1 /\
    (ok = true -> Psi s' <= Psi s /\ TM NoX s' g' /\ p_scopeStack s' = p_scopeStack s)).
Proof.
  intros IHn IHm H I0 H0 Est Hroom HTM Hnnp.
  wbi tbls I0. eapply wp_weaken; [apply (IHn s g top rest H I0 H0 Est Hroom HTM Hnnp)| |].
  { auto. }
  intros res s1 (g1 & H1 & X1 & F1 & P1 & Hok1) I1.
  destruct res; cbn [pres_eqb]; try (apply wp_ret; exists g1; repeat (split; [assumption|]); intros E; discriminate).
  destruct (Hok1 eq_refl) as (K1 & K2 & K3).
  eapply wp_weaken; [apply (IHm s1 g1 H1 I1)| |].
  - apply (ge_live _ _ (xd_g _ _ _ _ X1)). exact H0.
  - rewrite K3. exact Est.
  - unfold roomD in *. lia.
  - exact K2.
  - apply (notnp_keep NoP s g s1 top (fr_keep _ _ _ _ _ _ _ F1) (fi_R _ _ H) (scope_topD _ _ _ _ H Est) Hnnp).
  - auto.
  - intros ok s' (g' & H' & X' & F' & P' & Hok'). exists g'. split; [exact H'|].
    split; [eapply ExtD_trans; eauto|]. split.
    { eapply Fr_trans; [exact F1|exact F'|apply (ge_live _ _ (xd_g _ _ _ _ X1))|auto|auto|auto]. }
    split; [lia|]. intros Eok. destruct (Hok' Eok) as (L1 & L2 & L3). split; [lia|]. split; [exact L2|congruence].
Qed.

Lemma step_Dtermlist fuel : D_next tbls fuel -> D_termlist tbls fuel -> D_termlist tbls (S fuel).
Proof.
  intros IHn IHt s g top rest H I0 H0 Est Hroom HTM Hnnp. cbn [termList_go].
  wbi tbls I0. apply wp_get. intros _.
  destruct (eof (p_r s)).
  { apply wp_ret. exists g. split; [exact H|]. split; [apply ExtD_refl|]. split; [apply Fr_refl|]. split; [lia|].
    intros _. split; [lia|]. split; [exact HTM|reflexivity]. }
  apply (next_then fuel (termList_go fuel) s g top rest IHn); auto.
  intros s1 g1 A B C D E F G. apply (IHt s1 g1 top rest A B C D E F G).
Qed.

Lemma step_Dcallargs fuel : D_next tbls fuel -> D_callargs tbls fuel -> D_callargs tbls (S fuel).
Proof.
  intros IHn IHc cnt s g top rest H I0 H0 Est Hroom HTM Hnnp. cbn [callArgs_go].
  destruct cnt as [|c].
  { apply wp_ret. exists g. split; [exact H|]. split; [apply ExtD_refl|]. split; [apply Fr_refl|]. split; [lia|].
    intros _. split; [lia|]. split; [exact HTM|reflexivity]. }
  apply (next_then fuel (callArgs_go fuel c) s g top rest IHn); auto.
  intros s1 g1 A B C D E F G. apply (IHc c s1 g1 top rest A B C D E F G).
Qed.

Lemma target_not_method op : target_cond op = true -> op <> aml_pOpMethod.
Proof. intros H ->. vm_compute in H. discriminate. Qed.

Lemma step_Dtarget fuel : D_objargs tbls fuel -> D_target tbls (S fuel).
Proof.
  intros IHo s g H I0 H0 Hroom HTM. cbn [parseTarget].
  pose proof (fi_rok _ _ H) as Hrok. pose proof (roomD_lp _ _ Hroom) as Hlp.
  pose proof (R_gwf _ _ (fi_R _ _ H)) as Hwf.
  wbi tbls I0. apply wp_get. intros _.
  wbi tbls I0. apply wp_nextop; auto. intros nextOp ok r1 Hadv Hok Hnok I1.
  assert (H1 : FD (with_r s r1) g) by (apply FI_adv; auto).
  assert (F1 : Fr NoP NoP NoP s g (with_r s r1) g) by (eapply Fr_tree_eq; [apply Fr_refl|reflexivity]).
  destruct ok.
  - destruct (Hok eq_refl) as (Hlt & Hop & idx & Hidx & Hbad). clear Hok Hnok.
    assert (A1 : at_ s (with_r s r1) 1 0).
    { eapply at_r; [apply at_refl; auto|destruct Hadv as ((_ & E & _) & _); exact E|lia|destruct Hadv as (_ & _ & L); exact L]. }
    pose proof (at_Psi _ _ _ _ A1) as P1.
    destruct (nextOp =? aml_pOpZero).
    { apply wp_ret. exists g. split; [exact H1|]. split; [eapply at_ExtD; [exact A1|apply gext_refl]|]. split; [exact F1|].
      split; [exact I|]. split; [lia|]. split; [discriminate|]. intros _. split; [lia|]. split; [|reflexivity].
      eapply TM_tree_eq; [exact HTM|reflexivity]. }
    change (isArg nextOp || (nextOp =? aml_pOpRefOf) || (nextOp =? aml_pOpDerefOf) || (nextOp =? aml_pOpIndex) || (nextOp =? aml_pOpDebug))
      with (target_cond nextOp).
    destruct (target_cond nextOp) eqn:Etc.
    2:{ apply wp_ret. exists g. split; [exact H1|]. split; [eapply at_ExtD; [exact A1|apply gext_refl]|]. split; [exact F1|].
        split; [exact I|]. split; [lia|]. split; [discriminate|]. intros E; discriminate. }
    destruct (valid_op _ _ Hop Hidx Hbad) as (Hnk & Hidx').
    eapply (new_off_step tbls NoP nextOp _ 1 _ s g (with_r s r1)); [exact H1|exact I1|exact F1|exact A1|exact Hnk| |].
    { unfold lp in *. pcbn. lia. }
    intros p t2 g2 po s3 H3 I3 Hext2 Hfresh2 Hlive2 Hroot2 Hkids2 Hks2 Hlv2 Hpo Hg3' Hpop Hpval Hpidx F3 A3.
    pose proof (at_Psi _ _ _ _ A3) as P3.
    assert (HTM3 : TM (eq p) s3 g2).
    { eapply (TM_frame2 NoX (eq p) NoP NoP NoP s g s3 g2 Hwf (fi_R _ _ H) HTM F3); try (intros; contradiction); try apply Eok_NoP.
      intros m mo Hm Hmop Hnl. left.
      assert (Hl2m : glive g2 m) by (apply (R_live_glive _ _ (fi_R _ _ H3)); exists mo; split; [exact Hm|rewrite Hmop; discriminate]).
      destruct (Hlv2 m Hl2m) as [F|F]; [contradiction|symmetry; exact F]. }
    wbi tbls I3.
    eapply wp_weaken; [apply (IHo p s3 g2 H3 I3 (ge_live _ _ Hext2 _ H0) Hlive2)| |].
    + unfold roomD in *. lia.
    + exact HTM3.
    + intros co Hco Hcop. exfalso. rewrite Hg3' in Hco. inversion Hco; subst co.
      cbn [o_opcode set_amlOffset] in Hcop. rewrite Hpop in Hcop. exact (target_not_method _ Etc Hcop).
    + intros (co & op' & fl & af & Hco & Hinfo & (k & Hk & Hfl)). exfalso.
      rewrite Hg3' in Hco. inversion Hco; subst co. cbn [o_infoIndex set_amlOffset] in Hinfo.
      rewrite Hidx' in Hpidx. inversion Hpidx as [Hii].
      eapply (target_no_fieldlist nextOp idx op' fl af k); eauto. rewrite Hii. exact Hinfo.
    + intros m mo a0 a1 rest Hm Hmop Hk E. subst a1. apply (Hroot2 m). rewrite Hk. right. left. reflexivity.
    + auto.
    + intros res s' (g' & G1 & G2 & G3 & G4 & G5 & G6 & G7) I4.
      apply wp_ret. exists g'. split; [exact G1|].
      split; [eapply ExtD_trans; [eapply at_ExtD; [exact A3|exact Hext2]|exact G2]|].
      split.
      { eapply Fr_trans; [exact F3|exact G3|apply (ge_live _ _ Hext2)| | |].
        - intros i Hi E. subst i. contradiction.
        - intros y Hy E. subst y. contradiction.
        - intros y Hy (_ & Hin). exfalso. exact (Hroot2 y Hin). }
      split.
      { cbn [fresh_root]. split; [exact Hfresh2|]. split; [apply (ge_live _ _ (xd_g _ _ _ _ G2)); exact Hlive2|].
        eapply groot_ext; [apply (xd_g _ _ _ _ G2)|exact Hlive2|exact Hroot2]. }
      split; [lia|]. split; [exact G6|].
      intros Hr. destruct (G7 Hr) as (K1 & K2 & K3). split; [lia|]. split; [exact K2|].
      rewrite K3. destruct A3 as (_ & _ & _ & _ & A5 & _). exact A5.
  - destruct (Hnok eq_refl) as (Ho1 & _). clear Hok Hnok.
    wbi tbls I1. apply wp_ru. intros I2.
    destruct (rok_setOffset r1 (r_offset (p_r s)) (fi_rok _ _ H1)) as (Hrok2 & Hlen2).
    set (r2 := setOffset (p_r (with_r s r1)) (r_offset (p_r s))) in *.
    assert (Eo2 : r_offset r2 = r_offset (p_r s)).
    { unfold r2. apply setOffset_noclamp. pcbn. destruct Hadv as ((_ & E & _) & _). rewrite E. destruct Hrok as (_ & _ & O). exact O. }
    assert (H2 : FD (with_r (with_r s r1) r2) g) by (apply FI_with_r; auto).
    assert (F2 : Fr NoP NoP NoP s g (with_r (with_r s r1) r2) g) by (eapply Fr_tree_eq; [apply Fr_refl|reflexivity]).
    assert (A2 : at_ s (with_r (with_r s r1) r2) 0 0).
    { eapply at_r; [apply at_adv0; [apply at_refl; auto|exact Hadv]|exact Hlen2|lia|destruct Hrok2 as (_ & _ & O); exact O]. }
    eapply (new_off_step tbls NoP aml_pOpIntNamePath _ 0 _ s g (with_r (with_r s r1) r2));
      [exact H2|exact I2|exact F2|exact A2|apply (newokb_sound aml_pOpIntNamePath eq_refl)| |].
    { unfold lp in *. pcbn. lia. }
    intros p t3 g3 po s4 H4 I4 Hext3 Hfresh3 Hlive3 Hroot3 Hkids3 Hks3 Hlv3 Hpo Hp4 Hpop _ _ F4 A4.
    wbi tbls I4. apply wp_get. intros _.
    apply (wp_bind_hoare tbls _ _ _ _ _ (fun x => slice_ok tbls (cur tbls) (fst x)) I4);
      [apply hoare_lex_slice; [apply safe2_parseNameString|right; reflexivity]|].
    apply wp_namestring; [apply (fi_rok _ _ H4)|]. intros v ok2 r5 Hadv5 Hok5 I5 Hsl. cbn [fst] in Hsl.
    assert (H5 : FD (with_r s4 r5) g3) by (apply FI_adv; auto).
    assert (F5 : Fr NoP NoP NoP s g (with_r s4 r5) g3) by (eapply Fr_tree_eq; [exact F4|reflexivity]).
    apply (wp_bind_inv tbls _ _ _ _ _ I5).
    { apply hoare_wrf. apply keeps_set_value. apply value_ok_bytes.
      replace (N.of_nat (length (p_tables s4)) - 1) with (cur tbls); [exact Hsl|].
      unfold cur. rewrite <- (inv_tbls _ _ I4). reflexivity. }
    eapply (wrf_step _ _ _ _ _ _ H5 Hlive3); [intros o Ho; lk_tac|intros o Ho Hi; info_tac|].
    intros o6 Hg6 Hlo6 H6 I6.
    match type of H6 with FIm true ?st _ => set (s6 := st) in * end.
    assert (F6 : Fr NoP NoP NoP s g s6 g3) by (apply Fr_tset_fresh; [exact F5|exact Hfresh3]).
    assert (Hg6' : exists o6', tget (p_tree s6) p = Some o6' /\ o_opcode o6' = aml_pOpIntNamePath).
    { unfold s6, s4. pcbn. rewrite !get_tset, !N.eqb_refl. assert (Hy : tget t3 p = Some po) by exact Hpo.
      rewrite Hy. cbn [option_map]. eexists. split; [reflexivity|]. cbn [o_opcode set_value set_amlOffset]. exact Hpop. }
    assert (HTM6 : TM NoX s6 g3).
    { eapply (TM_frame2 NoX NoX NoP NoP NoP s g s6 g3 Hwf (fi_R _ _ H) HTM F6); try (intros; contradiction); try apply Eok_NoP.
      intros m mo Hm Hmop Hnl. exfalso.
      assert (Hl3m : glive g3 m) by (apply (R_live_glive _ _ (fi_R _ _ H6)); exists mo; split; [exact Hm|rewrite Hmop; discriminate]).
      destruct (Hlv3 m Hl3m) as [F|F]; [contradiction|]. subst m. destruct Hg6' as (o6' & Ho6' & Eop).
      assert (o6' = mo) by congruence. subst. rewrite Hmop in Eop. discriminate. }
    apply wp_ret. exists g3. split; [exact H6|].
    destruct ok2.
    + specialize (Hok5 eq_refl).
      assert (A6 : at_ s s6 1 1).
      { apply at_tset. replace 1 with (0 + 1) at 1 by reflexivity. apply at_adv; [exact A4|exact Hadv5|lia]. }
      pose proof (at_Psi _ _ _ _ A6) as P6.
      split; [eapply at_ExtD; [exact A6|exact Hext3]|]. split; [exact F6|].
      split; [cbn [fresh_root]; auto|]. split; [lia|]. split; [discriminate|].
      intros _. split; [lia|]. split; [exact HTM6|]. destruct A6 as (_ & _ & _ & _ & A5 & _). exact A5.
    + assert (A6 : at_ s s6 0 1) by (apply at_tset; apply at_adv0; [exact A4|exact Hadv5]).
      pose proof (at_Psi _ _ _ _ A6) as P6.
      split; [eapply at_ExtD; [exact A6|exact Hext3]|]. split; [exact F6|].
      split; [cbn [fresh_root]; auto|]. split; [lia|]. split; [discriminate|]. intros E; discriminate.
Qed.
End StepX.
