(** "never a hang" for the tree walks.  Run with at least twice as much fuel as the pool has slots,
    connectNamedObjArgs, resolveMethodCalls and connectNonNamedObjArgs RETURN (no OutOfFuel, no Panic), alone and chained
    (tail2_returns); ParseAML's own fuel is that large (parse_fuel_enough).  The measure of the walk from an object is
    twice the size of its subtree, of the loop over the first children of an object twice the size of their subtrees plus
    the number of the children already done (PO / PL of ParserTotalConn.v); here the size of a subtree exists and is bounded
    by the pool.  The inner loops of the resolve passes (insideSelf, scopeOf) return on poolFuel: the ancestor climb is
    bounded by the depth, the child scan by the number of children. *)
From Coq Require Import NArith Arith List Bool Lia.
From Coq Require Import ZifyBool ZifyN ZifyNat.
From FF Require Import Lib.Word Gen.Consts_device_acpi_aml Gen.Consts_aml_tree Aml.Stream Aml.Lex Aml.LexProofs
  Aml.Tree Aml.Parser Aml.ParserProofs Aml.TreeSpec Aml.TreeProofs Aml.TreeProofsOps Aml.TreeProofsFind Aml.TreeProofsAnc
  Aml.ParserTotalTree Aml.ParserTotalTree2 Aml.ParserTotalLex Aml.ParserTotalTable Aml.ParserTotalBase Aml.ParserTotalLeaf
  Aml.ParserTotalFrame Aml.ParserTotalFirst Aml.ParserTotalConn Aml.ParserTotalNonNamed Aml.ParserTotalCalls Aml.ParserTotalReloc
  Aml.ParserTotalMerge Aml.ParserTotalResolve Aml.ParserTotalDefer Aml.ParserTotalDeferW Aml.ParserTotalDeferV
  Aml.ParserTotalTyped Aml.ParserTotalShape Aml.ParserTotalChain Aml.ParserTotalConn2 Aml.ParserTotalPass2.
Import ListNotations.
Local Open Scope N_scope.

Section Size.
Context (t : T) (g : ghost) (HR : R t g).

(** the size of the subtree of a live object exists: it is the length of a duplicate-free list of descendants *)
Lemma sz_exists : forall x, glive g x ->
  exists l, NoDup l /\ (forall y, In y l -> desc g x y) /\ sz g x (length l).
Proof.
  pose proof (R_gwf _ _ HR) as Hwf.
  apply (forest_ind _ _ HR). intros x Hl IH.
  assert (Hl' : forall cs, (forall c, In c cs -> In c (kids g x)) -> NoDup cs ->
            exists l, NoDup l /\ (forall y, In y l -> exists c, In c cs /\ desc g c y) /\ szl g cs (length l)).
  { induction cs as [|c cs IHc]; intros Hsub Hnd.
    - exists []. split; [constructor|]. split; [intros y []|constructor].
    - apply NoDup_cons_iff in Hnd. destruct Hnd as (Hnc & Hnd).
      destruct (IH c (Hsub c (or_introl eq_refl))) as (l1 & N1 & D1 & C1).
      destruct (IHc (fun c' Hc' => Hsub c' (or_intror Hc')) Hnd) as (l2 & N2 & D2 & C2).
      exists (l1 ++ l2). split; [|split].
      + apply NoDup_app_intro; auto. intros y Hy1 Hy2. destruct (D2 y Hy2) as (c' & Hc' & Dc').
        assert (c = c') by (eapply (siblings_disjoint _ _ HR x); [apply Hsub; left; reflexivity|apply Hsub; right; exact Hc'|apply D1; exact Hy1|exact Dc']).
        subst c'. contradiction.
      + intros y Hy. apply in_app_or in Hy. destruct Hy as [Hy|Hy].
        * exists c. split; [left; reflexivity|apply D1; exact Hy].
        * destruct (D2 y Hy) as (c' & Hc' & Dc'). exists c'. split; [right; exact Hc'|exact Dc'].
      + rewrite app_length. constructor; auto. }
  destruct (R_live_glive _ _ HR x) as (_ & Hlv). destruct (Hlv Hl) as (o & Ho & Hlo).
  destruct (R_kids _ _ HR _ _ Ho Hlo) as (_ & _ & _ & Hnd).
  destruct (Hl' (kids g x) (fun c Hc => Hc) Hnd) as (l & Nl & Dl & Cl).
  exists (x :: l). split; [|split].
  - constructor; [|exact Nl]. intros Hin. destruct (Dl x Hin) as (c & Hc & Dc). exact (child_not_desc _ _ HR x c Hc Dc).
  - intros y [<-|Hy]; [constructor|]. destruct (Dl y Hy) as (c & Hc & Dc).
    eapply desc_trans; [eapply desc_step; [constructor|exact Hc]|exact Dc].
  - cbn [length]. constructor. exact Cl.
Qed.

Lemma sz_bounded x : glive g x -> exists n, sz g x n /\ (n <= length (t_pool t))%nat.
Proof.
  intros Hl. destruct (sz_exists x Hl) as (l & Nl & Dl & Cl). exists (length l). split; [exact Cl|].
  apply nodup_bound; [exact Nl|]. intros y Hy. rewrite <- (R_len _ _ HR). eapply glive_lt.
  eapply desc_live; [apply (R_gwf _ _ HR)|exact Hl|apply Dl; exact Hy].
Qed.
End Size.

(** connectNamedObjArgs with enough fuel returns *)
Section Returns.
Variable J : pstate -> ghost -> Prop.
Hypothesis J_setname : forall s g a nm, TI s g -> J s g -> tgt_ok s g a ->
  J (with_tree s (tset (p_tree s) a (set_name nm))) g.
Hypothesis J_attach : forall s g parent target sib l1 l2 (t2 : T) g2, TI s g -> J s g ->
  kids g parent = l1 ++ target :: sib :: l2 -> tgt_ok s g target ->
  pframe (p_tree s) t2 -> shape_eq g g2 -> roots_iff g g2 ->
  (forall q, kids g2 q = (if q =? parent then remove1 sib (kids g parent) else kids g q) ++ (if q =? target then [sib] else [])) ->
  J (with_tree s t2) g2.

Theorem connectNamed_returns : forall fuel x s g,
  TI s g -> J s g -> glive g x -> (2 * length (t_pool (p_tree s)) <= fuel)%nat ->
  wp False (connectNamedObjArgs fuel x) s (fun _ s' => exists g', TI s' g' /\ J s' g' /\ reloc g g' (desc g x)).
Proof.
  intros fuel x s g H HJ Hl Hf.
  eapply wp_weaken; [apply (proj1 (conn_allF J J_setname J_attach fuel) x s g H HJ Hl)| |intros r s' Hp; exact Hp].
  intros HP. destruct (sz_bounded _ _ (ti_R _ _ H) x Hl) as (n & Hn & Hb). specialize (HP n Hn). lia.
Qed.
End Returns.

(** without an abstract invariant: R, valid indexes and slices-inside are re-established *)
Theorem connectNamedObjArgs_returns : forall fuel x s g,
  R (p_tree s) g -> info_valid (p_tree s) -> pool_ok (p_tables s) (p_tree s) -> glive g x ->
  (2 * length (t_pool (p_tree s)) <= fuel)%nat ->
  match connectNamedObjArgs fuel x s with
  | Ok (_, s') => exists g', R (p_tree s') g' /\ info_valid (p_tree s') /\ pool_ok (p_tables s') (p_tree s')
  | Panic => False
  | OutOfFuel => False
  end.
Proof.
  intros fuel x s g HR Hi Hp Hl Hf.
  pose proof (connectNamed_returns (fun _ _ => True) (fun _ _ _ _ _ _ _ => I) (fun _ _ _ _ _ _ _ _ _ _ _ _ _ _ _ _ _ => I)
                fuel x s g (mkTI _ _ HR Hi Hp) I Hl Hf) as W.
  unfold wp in W. destruct (connectNamedObjArgs fuel x s) as [[r s']| |]; auto.
  destruct W as (g' & [A B C] & _). exists g'. auto.
Qed.

(** the fuel ParseAML's model gives the pass (parse_fuel of the table length + the slots of the pool ParseAML started with) is
    enough as long as the pool has at most 4 slots per byte of the table more than it started with - what the first pass guarantees *)
Lemma parse_fuel_enough len pool0 pool :
  (pool <= pool0 + 4 * len + 2)%nat -> (2 * pool <= parse_fuel (len + pool0))%nat.
Proof. unfold parse_fuel. lia. Qed.

(** ---- the last two passes ---- *)
(** resolveMethodCalls / connectNonNamedObjArgs from the root with at least twice as much fuel as the pool has slots return; the
    measure (ParserTotalConn.v: PO2 / PL2) also counts the siblings that follow the object, which attachSiblingsAsArgs(useParent) may
    take - none at the root *)
Lemma pool_len_reloc (t t' : T) g g' S : R t g -> R t' g' -> reloc g g' S -> length (t_pool t') = length (t_pool t).
Proof. intros HR HR' Rl. rewrite <- (R_len _ _ HR), <- (R_len _ _ HR'). apply (rl_len _ _ _ Rl). Qed.

Theorem resolveMethodCalls_returns : forall fuel s g,
  R (p_tree s) g -> info_valid (p_tree s) -> pool_ok (p_tables s) (p_tree s) -> typed (p_tree s) ->
  glive g 0 -> groot g 0 -> (2 * length (t_pool (p_tree s)) <= fuel)%nat ->
  match resolveMethodCalls fuel 0 s with
  | Ok (_, s') => exists g', R (p_tree s') g' /\ info_valid (p_tree s') /\ pool_ok (p_tables s') (p_tree s') /\ typed (p_tree s') /\
      glive g' 0 /\ groot g' 0 /\ length (t_pool (p_tree s')) = length (t_pool (p_tree s))
  | Panic => False
  | OutOfFuel => False
  end.
Proof.
  intros fuel s g HR Hi Hp Hty H0 Hroot Hf.
  pose proof (proj1 (calls_all KT KT_move KT_upd fuel) 0 s g None [] [] (mkTI _ _ HR Hi Hp) H0 (conj Hroot eq_refl) (conj Hty (conj H0 I))) as W. unfold wp in W.
  destruct (resolveMethodCalls fuel 0 s) as [[r s']| |]; auto.
  - destruct W as (g' & m2' & ([A B C] & Hrel & _ & Hroots & _ & D & _) & _ & _). exists g'. repeat (split; [assumption|]).
    split; [apply (reloc_glive _ _ _ 0 Hrel); exact H0|]. split; [apply Hroots; exact Hroot|exact (pool_len_reloc _ _ _ _ _ HR A Hrel)].
  - destruct (sz_bounded _ _ HR 0 H0) as (n & Hn & Hb). specialize (W n Hn). cbn [length] in W. lia.
Qed.

Theorem connectNonNamedObjArgs_returns : forall fuel s g,
  R (p_tree s) g -> info_valid (p_tree s) -> pool_ok (p_tables s) (p_tree s) ->
  glive g 0 -> groot g 0 -> (2 * length (t_pool (p_tree s)) <= fuel)%nat ->
  match connectNonNamedObjArgs fuel 0 s with
  | Ok (_, s') => exists g', R (p_tree s') g' /\ info_valid (p_tree s') /\ pool_ok (p_tables s') (p_tree s')
  | Panic => False
  | OutOfFuel => False
  end.
Proof.
  intros fuel s g HR Hi Hp H0 Hroot Hf.
  pose proof (proj1 (nonNamed_all KT KT_move fuel) 0 s g None [] [] (mkTI _ _ HR Hi Hp) H0 (conj Hroot eq_refl) I) as W. unfold wp in W.
  destruct (connectNonNamedObjArgs fuel 0 s) as [[r s']| |]; auto.
  - destruct W as (g' & m2' & ([A B C] & _) & _). exists g'. auto.
  - destruct (sz_bounded _ _ HR 0 H0) as (n & Hn & Hb). specialize (W n Hn). cbn [length] in W. lia.
Qed.

(** the two passes as ParseAML chains them *)
Definition parse_tail2 (f5 f6 : nat) : M bool :=
  mlet r5 <~ resolveMethodCalls f5 0 ;;
  if negb (pres_eqb r5 ROk) then ret false else
  mlet r6 <~ connectNonNamedObjArgs f6 0 ;;
  if negb (pres_eqb r6 ROk) then ret false else
  ret true.

Theorem tail2_returns : forall f5 f6 s g,
  R (p_tree s) g -> info_valid (p_tree s) -> pool_ok (p_tables s) (p_tree s) -> typed (p_tree s) ->
  glive g 0 -> groot g 0 ->
  (2 * length (t_pool (p_tree s)) <= f5)%nat -> (2 * length (t_pool (p_tree s)) <= f6)%nat ->
  match parse_tail2 f5 f6 s with
  | Ok (_, s') => exists g', R (p_tree s') g' /\ info_valid (p_tree s') /\ pool_ok (p_tables s') (p_tree s')
  | Panic => False
  | OutOfFuel => False
  end.
Proof.
  intros f5 f6 s g HR Hi Hp Hty H0 Hroot Hf5 Hf6.
  pose proof (resolveMethodCalls_returns f5 s g HR Hi Hp Hty H0 Hroot Hf5) as W5.
  unfold parse_tail2, bindM. destruct (resolveMethodCalls f5 0 s) as [[r5 s1]| |]; try contradiction.
  destruct W5 as (g1 & A1 & A2 & A3 & A4 & A5 & A6 & A7).
  destruct (negb (pres_eqb r5 ROk)); [unfold ret; exists g1; auto|].
  pose proof (connectNonNamedObjArgs_returns f6 s1 g1 A1 A2 A3 A5 A6) as W6. rewrite A7 in W6. specialize (W6 Hf6).
  destruct (connectNonNamedObjArgs f6 0 s1) as [[r6 s2]| |]; try contradiction.
  destruct (negb (pres_eqb r6 ROk)); unfold ret; exact W6.
Qed.

(** ---- the inner loops of the resolve passes run on their own fuel, [poolFuel] = pool size + 2: it suffices ---- *)
(** insideSelf (relocateNamedObjects, commit 648a1d7) climbs the parent links: one unit of fuel per ancestor *)
Lemma insideSelf_ret : forall fuel a obj s g k, TI s g -> glive g a -> Depth (p_tree s) a k -> (k + 2 <= fuel)%nat ->
  wp False (insideSelf_go fuel (Some a) obj) s (fun _ s' => s' = s).
Proof.
  induction fuel as [|fuel IH]; intros a obj s g k H Hl Hd Hf; [lia|]. cbn [insideSelf_go].
  pose proof (ti_R _ _ H) as HR.
  destruct (N.eqb_spec a obj) as [E|E].
  { apply wp_ret. reflexivity. }
  destruct (TI_live_get _ _ _ H Hl) as (ao & Hao & Hlao).
  apply wp_bind. apply wp_rdf. exists ao. split; [exact Hao|].
  apply wp_bind, wp_get.
  destruct (parent_link _ _ _ _ H Hao Hlao) as [(Ep & Hroot)|(Ep & Hin & Hlp)].
  - rewrite Ep. assert (Hn : ObjectAt (p_tree s) InvalidIndex = None).
    { destruct (ObjectAt (p_tree s) InvalidIndex) as [q|] eqn:Eo; [|reflexivity].
      destruct (ObjectAt_some _ _ _ Eo) as (_ & o' & Ho' & _). exfalso. eapply (R_pos_not_Inv _ _ HR); eauto. }
    rewrite Hn. destruct fuel as [|fuel]; [lia|]. cbn [insideSelf_go]. apply wp_ret. reflexivity.
  - rewrite (TI_ObjectAt _ _ _ H Hlp).
    inversion Hd as [i o Hg _ Hp|i o k' Hg _ _ Hd']; subst; assert (o = ao) by congruence; subst o; [contradiction|].
    apply (IH (o_parent ao) obj s g k' H Hlp Hd'). lia.
Qed.

Theorem insideSelf_poolFuel : forall a obj s g, TI s g -> glive g a ->
  wp False (mlet pf <~ poolFuel ;; insideSelf_go pf (Some a) obj) s (fun _ s' => s' = s).
Proof.
  intros a obj s g H Hl. unfold poolFuel. apply wp_bind, wp_get.
  destruct (live_depth _ _ (ti_R _ _ H) a Hl) as (k & Hd). pose proof (Depth_bound _ _ _ Hd).
  apply (insideSelf_ret _ a obj s g k H Hl Hd). lia.
Qed.

(** scopeOf walks the children of the target until it meets a ScopeBlock: one unit of fuel per child *)
Lemma nestedScope_ret : forall fuel idx p l1 l2 s g, TI s g -> glive g p -> kids g p = l1 ++ l2 -> idx = hd InvalidIndex l2 ->
  (length l2 + 1 <= fuel)%nat -> wp False (nestedScope_go fuel idx) s (fun _ s' => s' = s).
Proof.
  induction fuel as [|fuel IH]; intros idx p l1 l2 s g H Hlp Hk Hidx Hf; [lia|]. cbn [nestedScope_go].
  pose proof (ti_R _ _ H) as HR.
  destruct l2 as [|c l2']; cbn [hd] in Hidx; subst idx.
  { rewrite N.eqb_refl. apply wp_ret. reflexivity. }
  assert (Hin : In c (kids g p)) by (rewrite Hk; apply in_or_app; right; left; reflexivity).
  destruct ((R_gwf _ _ HR) _ _ Hin) as (_ & Hl).
  destruct (sibling_links _ _ HR _ l1 c l2' Hlp Hk) as (o & Ho & Hlo & _ & _ & En & _).
  assert (Ec : (c =? InvalidIndex) = false) by (apply N.eqb_neq; eapply (R_pos_not_Inv _ _ HR); eauto).
  rewrite Ec.
  apply wp_bind. apply wp_objectAt'; [apply (TI_ObjectAt _ _ _ H Hl)|].
  apply wp_bind. apply wp_rdf. exists o. split; [exact Ho|].
  destruct (o_opcode o =? aml_pOpIntScopeBlock); [apply wp_ret; reflexivity|].
  apply wp_bind. apply wp_rdf. exists o. split; [exact Ho|]. rewrite En.
  apply (IH (hd InvalidIndex l2') p (l1 ++ [c]) l2' s g H Hlp); [rewrite <- app_assoc; exact Hk|reflexivity|cbn [length] in Hf; lia].
Qed.

Theorem scopeOf_returns : forall target s g, TI s g -> glive g target ->
  wp False (scopeOf target) s (fun _ s' => s' = s).
Proof.
  intros target s g H Hl. unfold scopeOf, poolFuel. pose proof (ti_R _ _ H) as HR.
  apply wp_bind. apply wp_objectAt'; [apply (TI_ObjectAt _ _ _ H Hl)|].
  destruct (TI_live_get _ _ _ H Hl) as (o & Ho & Hlo).
  apply wp_bind. apply wp_rdf. exists o. split; [exact Ho|].
  destruct (o_opcode o =? aml_pOpIntScopeBlock); [apply wp_ret; reflexivity|].
  apply wp_bind. apply wp_rdf. exists o. split; [exact Ho|].
  apply wp_bind, wp_get.
  destruct (R_kids _ _ HR _ _ Ho Hlo) as (Hf & _ & _ & Hnd).
  apply (nestedScope_ret _ (o_first o) target [] (kids g target) s g H Hl eq_refl Hf).
  assert (Hb : (length (kids g target) <= length (t_pool (p_tree s)))%nat).
  { apply nodup_bound; [exact Hnd|]. intros y Hy. rewrite <- (R_len _ _ HR). eapply glive_lt. apply ((R_gwf _ _ HR) _ _ Hy). }
  lia.
Qed.
