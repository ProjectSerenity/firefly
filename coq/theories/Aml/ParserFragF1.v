(** C11 (fragments F1 .. F8): Name declarations (integer, string or package value), block-like objects (Device,
    ThermalZone, Processor, PowerResource, Method with declarations only) and leaf objects (Mutex, Event, OperationRegion).
    Items, their encoding, the tree the first pass builds for them ([lay1]) and the tree after connectNamedObjArgs
    ([lay2]): the definitions of ParserFragF9.v without the statement constructor, over a type of their own; the second
    half embeds these items into those of ParserFragF9.v ([emb]) and shows that every function here agrees with its
    namesake there. *)
From Coq Require Import NArith ZArith Arith List Bool Lia.
From Coq Require Import ZifyBool ZifyN ZifyNat.
From FF Require Import Lib.Word Gen.Consts_device_acpi_aml Gen.Consts_aml_tree Aml.Stream Aml.Lex Aml.LexProofs
  Aml.Tree Aml.TreeSpec Aml.TreeProofs Aml.Parser Aml.Grammar Aml.LexRoundtrip
  Aml.ParserTotalBase Aml.ParserFragBase Aml.ParserFragFirst Aml.ParserFragF0 Aml.ParserFragF0Conn Aml.ParserFragWalk Aml.ParserFragRose
  Aml.ParserFragDev Aml.ParserFragArgs.
From FF Require Aml.ParserFragF9.
Import ListNotations.
Local Open Scope N_scope.

(** a constant TermArg argument of a leaf named object: an integer constant or a string *)
Inductive targ : Type := TInt (d : decl) | TStr (b : list N).

(** an element of a package: a constant or a package of such elements *)
Inductive pel : Type := PLeaf (a : targ) | PSub (k n : N) (es : list pel).

Inductive item : Type :=
| IName (d : decl)
| IBlk (bk : bkind) (k seg : N) (fa : list N) (body : list item)
| ILeaf (lk : lkind) (seg : N) (fa : list N) (ta : list targ)
| IPkg (seg k n : N) (elems : list pel).          (* Name(SEG, Package(n){ constants and packages }) *)

(** Device and Method blocks (the fragments F1 / F2) *)
Definition IDev (k seg : N) (body : list item) : item := IBlk BDev k seg [] body.
Definition IMeth (k seg fl : N) (body : list item) : item := IBlk BMeth k seg [fl] body.

(** the fixed data arguments of a block with their widths *)
Definition bfx (bk : bkind) (fa : list N) : fxs := combine (bk_ws bk) fa.
Definition blo (bk : bkind) : N := lenN (enc_op (bk_op bk)).
Definition lfx (lk : lkind) (fa : list N) : fxs := combine (lk_ws lk) fa.
Definition llo (lk : lkind) : N := lenN (enc_op (lk_op lk)).
(** the constant TermArg arguments of a leaf object (only opcode and value of the [decl] are used) *)
Definition cst_okb (d : decl) : bool := is_constb (d_op d) && (d_v d <? 2 ^ (N.of_nat (const_bytes (d_op d)) * 8)).
Definition str_okb (b : list N) : bool := forallb (fun c => (1 <=? c) && (c <=? 127)) b.
Definition enc_targ (a : targ) : list N := match a with TInt d => enc_const d | TStr b => OP_STRING :: b ++ [0] end.
Definition targ_okb (a : targ) : bool := match a with TInt d => cst_okb d | TStr b => str_okb b end.
Definition enc_ta (ta : list targ) : list N := flat_map enc_targ ta.

Fixpoint enc_pel (e : pel) : list N :=
  match e with
  | PLeaf a => enc_targ a
  | PSub k n es => [OP_PACKAGE] ++ enc_pkglen k (k + lenN ([n] ++ flat_map enc_pel es)) ++ [n] ++ flat_map enc_pel es
  end.
Definition enc_pels (es : list pel) : list N := flat_map enc_pel es.
(** [pel_sz]: number of objects of a package element; [pel_cnt]: number of turns of the object-list loop *)
Fixpoint pel_sz (e : pel) : nat :=
  match e with PLeaf _ => 1%nat | PSub _ _ es => (3 + fold_right (fun x n => (pel_sz x + n)%nat) O es)%nat end.
Definition pels_sz (es : list pel) : nat := fold_right (fun x n => (pel_sz x + n)%nat) O es.
Fixpoint pel_cnt (e : pel) : nat :=
  match e with PLeaf _ => 1%nat | PSub _ _ es => (2 + fold_right (fun x n => (pel_cnt x + n)%nat) O es)%nat end.
Definition pels_cnt (es : list pel) : nat := fold_right (fun x n => (pel_cnt x + n)%nat) O es.

Fixpoint enc_item (it : item) : list N :=
  match it with
  | IName d => enc_decl d
  | IBlk bk k seg fa body =>
      enc_op (bk_op bk) ++ enc_pkglen k (k + lenN (seg_bytes seg ++ enc_fx (bfx bk fa) ++ flat_map enc_item body)) ++
      seg_bytes seg ++ enc_fx (bfx bk fa) ++ flat_map enc_item body
  | ILeaf lk seg fa ta => enc_op (lk_op lk) ++ seg_bytes seg ++ enc_fx (lfx lk fa) ++ enc_ta ta
  | IPkg seg k n elems => OP_NAME :: seg_bytes seg ++ [OP_PACKAGE] ++ enc_pkglen k (k + lenN ([n] ++ enc_pels elems)) ++ [n] ++ enc_pels elems
  end.
Definition enc_items (l : list item) : list N := flat_map enc_item l.

(** [isz]: number of objects the first pass allocates for an item; [icnt]: number of turns of the object-list loop *)
Fixpoint isz (it : item) : nat :=
  match it with IName _ => 3%nat
              | IBlk bk _ _ fa body => (3 + length (bfx bk fa) + fold_right (fun x n => (isz x + n)%nat) O body)%nat
              | ILeaf lk _ fa ta => (2 + length (lfx lk fa) + length ta)%nat
              | IPkg _ _ _ elems => (5 + pels_sz elems)%nat end.
Definition iszs (l : list item) : nat := fold_right (fun x n => (isz x + n)%nat) O l.

Fixpoint icnt (it : item) : nat :=
  match it with IName _ => 2%nat
              | IBlk bk _ _ fa body => (2 + length (bfx bk fa) + fold_right (fun x n => (icnt x + n)%nat) O body)%nat
              | ILeaf lk _ fa ta => (2 + length (lfx lk fa) + length ta)%nat
              | IPkg _ _ _ elems => (5 + pels_cnt elems)%nat end.
Definition icnts (l : list item) : nat := fold_right (fun x n => (icnt x + n)%nat) O l.

Definition pkglen_okb (k v : N) : bool :=
  ((k =? 1) && (v <? 64)) || ((k =? 2) && (v <? 4096)) || ((k =? 3) && (v <? 1048576)) || ((k =? 4) && (v <? 268435456)).

Lemma pkglen_okb_adm k v : pkglen_okb k v = true -> pkglen_admissible k v.
Proof. exact (ParserFragF9.pkglen_okb_adm k v). Qed.

Fixpoint pel_okb (e : pel) : bool :=
  match e with
  | PLeaf a => targ_okb a
  | PSub k n es => (n <? 256) && pkglen_okb k (k + lenN ([n] ++ flat_map enc_pel es)) && forallb pel_okb es
  end.

Fixpoint item_okb (it : item) : bool :=
  match it with
  | IName d => decl_okb d && (d_seg d <? 0x100000000)
  | IBlk bk k seg fa body =>
      lead_okb (seg_lead seg) && (seg <? 0x100000000) && Nat.eqb (length fa) (length (bk_ws bk)) && fx_okb (bfx bk fa) &&
      pkglen_okb k (k + lenN (seg_bytes seg ++ enc_fx (bfx bk fa) ++ flat_map enc_item body)) && forallb item_okb body
  | ILeaf lk seg fa ta =>
      lead_okb (seg_lead seg) && (seg <? 0x100000000) && Nat.eqb (length fa) (length (lk_ws lk)) && fx_okb (lfx lk fa) &&
      Nat.eqb (length ta) (lk_nt lk) && forallb targ_okb ta
  | IPkg seg k n elems =>
      lead_okb (seg_lead seg) && (seg <? 0x100000000) && (n <? 256) && pkglen_okb k (k + lenN ([n] ++ enc_pels elems)) && forallb pel_okb elems
  end.

(** ---- the trees ---- *)
Section Lay.
Variable h tbl : N.

Definition blk_pay (bk : bkind) (off : N) (nm : Name) : pay := mkPay (bk_op bk) (bk_info bk) h nm off 0 None.
Definition dev_pay (off : N) (nm : Name) : pay := blk_pay BDev off nm.
Definition mth_pay (off : N) (nm : Name) : pay := blk_pay BMeth off nm.
Definition sb_pay (off : N) : pay := mkPay aml_pOpIntScopeBlock 113 h name_zero off 0 None.
Definition pth_pay (off : N) : pay := mkPay aml_pOpIntNamePath 118 h name_zero off 0 (Some (VBytes tbl (mkSlice (Some off) 4))).
Definition nam_pay (off : N) (nm : Name) : pay := mkPay aml_pOpName 3 h nm off 0 None.
Definition cst_pay (off : N) (d : decl) : pay := mkPay (d_op d) (const_info (d_op d)) h name_zero off 0 (const_val (d_op d) (d_v d)).
Definition byt_pay (off v : N) : pay := cst_pay off (mkDecl 0 OP_BYTE v).

(** childless nodes in consecutive slots *)
Fixpoint leaf_row (b : N) (ps : list pay) : list rose :=
  match ps with [] => [] | p :: r => RN b p [] :: leaf_row (b + 1) r end.

(** name path and fixed data arguments of a block *)
Definition hd_pays (bk : bkind) (off k : N) (fa : list N) : list pay :=
  pth_pay (off + blo bk + k) :: fx_pays h (off + blo bk + k + 4) (bfx bk fa).
Definition sb_off (bk : bkind) (off k : N) (fa : list N) : N := off + blo bk + k + 4 + lenN (enc_fx (bfx bk fa)).
Definition nfx (bk : bkind) (fa : list N) : N := N.of_nat (length (bfx bk fa)).

(** a leaf named object: name path and fixed data arguments below it; the constants follow as siblings (first pass)
    or as further children (after connectNamedObjArgs) *)
Definition lf_pay (lk : lkind) (off : N) (nm : Name) : pay := mkPay (lk_op lk) (lk_info lk) h nm off 0 None.
Definition lhd_pays (lk : lkind) (off : N) (fa : list N) : list pay :=
  pth_pay (off + llo lk) :: fx_pays h (off + llo lk + 4) (lfx lk fa).
Definition ta_off (lk : lkind) (off : N) (fa : list N) : N := off + llo lk + 4 + lenN (enc_fx (lfx lk fa)).
Definition str_pay (off : N) (b : list N) : pay :=
  mkPay aml_pOpStringPrefix 7 h name_zero off 0 (Some (VBytes tbl (mkSlice (Some (off + 1)) (lenN b)))).
Definition targ_pay (off : N) (a : targ) : pay := match a with TInt d => cst_pay off d | TStr b => str_pay off b end.
Fixpoint cst_pays (off : N) (ta : list targ) : list pay :=
  match ta with [] => [] | a :: r => targ_pay off a :: cst_pays (off + lenN (enc_targ a)) r end.
Definition nlf (lk : lkind) (fa : list N) : N := N.of_nat (length (lfx lk fa)).
(** a Package: not a named object; children = number of elements (ByteData) and a ScopeBlock with the elements *)
Definition pkg_pay (off : N) : pay := mkPay aml_pOpPackage 11 h name_zero off 0 None.
Fixpoint pel_tree (b off : N) (e : pel) : rose :=
  match e with
  | PLeaf a => RN b (targ_pay off a) []
  | PSub k n es =>
      RN b (pkg_pay off) [RN (b + 1) (num_pay h W1 (off + 1 + k) n) [];
                          RN (b + 2) (sb_pay (off + 1 + k + 1))
                             ((fix go (b off : N) (l : list pel) {struct l} : list rose :=
                                 match l with [] => [] | x :: t => pel_tree b off x :: go (b + N.of_nat (pel_sz x)) (off + lenN (enc_pel x)) t end)
                                (b + 3) (off + 1 + k + 1) es)]
  end.
Fixpoint pel_trees (b off : N) (l : list pel) : list rose :=
  match l with [] => [] | x :: t => pel_tree b off x :: pel_trees (b + N.of_nat (pel_sz x)) (off + lenN (enc_pel x)) t end.
Definition pkg_tree (b off k n : N) (elems : list pel) : rose := pel_tree b off (PSub k n elems).
Lemma pel_tree_sub b off k n es : pel_tree b off (PSub k n es) =
  RN b (pkg_pay off) [RN (b + 1) (num_pay h W1 (off + 1 + k) n) [];
                      RN (b + 2) (sb_pay (off + 1 + k + 1)) (pel_trees (b + 3) (off + 1 + k + 1) es)].
Proof. reflexivity. Qed.

(** after the first pass: the constant is the next sibling of the Name object; names are not set *)
Fixpoint lay1_item (b off : N) (it : item) : list rose :=
  match it with
  | IName d => [RN b (nam_pay off name_zero) [RN (b + 1) (pth_pay (off + 1)) []]; RN (b + 2) (cst_pay (off + 5) d) []]
  | IBlk bk k seg fa body =>
      [RN b (blk_pay bk off name_zero)
          (leaf_row (b + 1) (hd_pays bk off k fa) ++
           [RN (b + 2 + nfx bk fa) (sb_pay (sb_off bk off k fa))
              ((fix go (b off : N) (l : list item) {struct l} : list rose :=
                  match l with [] => [] | x :: t => lay1_item b off x ++ go (b + N.of_nat (isz x)) (off + lenN (enc_item x)) t end)
                 (b + 3 + nfx bk fa) (sb_off bk off k fa) body)])]
  | ILeaf lk seg fa ta =>
      RN b (lf_pay lk off name_zero) (leaf_row (b + 1) (lhd_pays lk off fa)) :: leaf_row (b + 2 + nlf lk fa) (cst_pays (ta_off lk off fa) ta)
  | IPkg seg k n elems =>
      [RN b (nam_pay off name_zero) [RN (b + 1) (pth_pay (off + 1)) []]; pkg_tree (b + 2) (off + 5) k n elems]
  end.
Fixpoint lay1 (b off : N) (l : list item) : list rose :=
  match l with [] => [] | x :: t => lay1_item b off x ++ lay1 (b + N.of_nat (isz x)) (off + lenN (enc_item x)) t end.

Lemma lay1_blk b off bk k seg fa body : lay1_item b off (IBlk bk k seg fa body) =
  [RN b (blk_pay bk off name_zero)
      (leaf_row (b + 1) (hd_pays bk off k fa) ++
       [RN (b + 2 + nfx bk fa) (sb_pay (sb_off bk off k fa)) (lay1 (b + 3 + nfx bk fa) (sb_off bk off k fa) body)])].
Proof. reflexivity. Qed.

(** after connectNamedObjArgs: names set, the constant below the Name object *)
Fixpoint lay2_item (b off : N) (it : item) : list rose :=
  match it with
  | IName d => [RN b (nam_pay off (seg_nm (d_seg d))) [RN (b + 1) (pth_pay (off + 1)) []; RN (b + 2) (cst_pay (off + 5) d) []]]
  | IBlk bk k seg fa body =>
      [RN b (blk_pay bk off (seg_nm seg))
          (leaf_row (b + 1) (hd_pays bk off k fa) ++
           [RN (b + 2 + nfx bk fa) (sb_pay (sb_off bk off k fa))
              ((fix go (b off : N) (l : list item) {struct l} : list rose :=
                  match l with [] => [] | x :: t => lay2_item b off x ++ go (b + N.of_nat (isz x)) (off + lenN (enc_item x)) t end)
                 (b + 3 + nfx bk fa) (sb_off bk off k fa) body)])]
  | ILeaf lk seg fa ta =>
      [RN b (lf_pay lk off (seg_nm seg)) (leaf_row (b + 1) (lhd_pays lk off fa ++ cst_pays (ta_off lk off fa) ta))]
  | IPkg seg k n elems =>
      [RN b (nam_pay off (seg_nm seg)) [RN (b + 1) (pth_pay (off + 1)) []; pkg_tree (b + 2) (off + 5) k n elems]]
  end.
Fixpoint lay2 (b off : N) (l : list item) : list rose :=
  match l with [] => [] | x :: t => lay2_item b off x ++ lay2 (b + N.of_nat (isz x)) (off + lenN (enc_item x)) t end.

Lemma lay2_blk b off bk k seg fa body : lay2_item b off (IBlk bk k seg fa body) =
  [RN b (blk_pay bk off (seg_nm seg))
      (leaf_row (b + 1) (hd_pays bk off k fa) ++
       [RN (b + 2 + nfx bk fa) (sb_pay (sb_off bk off k fa)) (lay2 (b + 3 + nfx bk fa) (sb_off bk off k fa) body)])].
Proof. reflexivity. Qed.
End Lay.

Lemma isz_blk bk k seg fa body : isz (IBlk bk k seg fa body) = (3 + length (bfx bk fa) + iszs body)%nat.
Proof. reflexivity. Qed.
Lemma icnt_blk bk k seg fa body : icnt (IBlk bk k seg fa body) = (2 + length (bfx bk fa) + icnts body)%nat.
Proof. reflexivity. Qed.
Lemma enc_blk bk k seg fa body : enc_item (IBlk bk k seg fa body) =
  enc_op (bk_op bk) ++ enc_pkglen k (k + lenN (seg_bytes seg ++ enc_fx (bfx bk fa) ++ enc_items body)) ++ seg_bytes seg ++ enc_fx (bfx bk fa) ++ enc_items body.
Proof. reflexivity. Qed.

Lemma isz_leaf lk seg fa ta : isz (ILeaf lk seg fa ta) = (2 + length (lfx lk fa) + length ta)%nat.
Proof. reflexivity. Qed.
Lemma icnt_leaf lk seg fa ta : icnt (ILeaf lk seg fa ta) = (2 + length (lfx lk fa) + length ta)%nat.
Proof. reflexivity. Qed.
Lemma enc_leaf lk seg fa ta : enc_item (ILeaf lk seg fa ta) = enc_op (lk_op lk) ++ seg_bytes seg ++ enc_fx (lfx lk fa) ++ enc_ta ta.
Proof. reflexivity. Qed.

Lemma isz_pkg seg k n elems : isz (IPkg seg k n elems) = (5 + pels_sz elems)%nat.
Proof. reflexivity. Qed.
Lemma enc_pkg_item seg k n elems : enc_item (IPkg seg k n elems) =
  OP_NAME :: seg_bytes seg ++ [OP_PACKAGE] ++ enc_pkglen k (k + lenN ([n] ++ enc_pels elems)) ++ [n] ++ enc_pels elems.
Proof. reflexivity. Qed.
Lemma enc_pel_sub k n es : enc_pel (PSub k n es) = [OP_PACKAGE] ++ enc_pkglen k (k + lenN ([n] ++ enc_pels es)) ++ [n] ++ enc_pels es.
Proof. reflexivity. Qed.
Lemma pel_sz_sub k n es : pel_sz (PSub k n es) = (3 + pels_sz es)%nat. Proof. reflexivity. Qed.
Lemma pel_cnt_sub k n es : pel_cnt (PSub k n es) = (2 + pels_cnt es)%nat. Proof. reflexivity. Qed.
Lemma pel_okb_sub k n es : pel_okb (PSub k n es) = (n <? 256) && pkglen_okb k (k + lenN ([n] ++ enc_pels es)) && forallb pel_okb es.
Proof. reflexivity. Qed.
Lemma pel_ind' (P : pel -> Prop) :
  (forall a, P (PLeaf a)) -> (forall k n es, Forall P es -> P (PSub k n es)) -> forall e, P e.
Proof.
  intros HL HS. fix IH 1. intros [a|k n es]; [apply HL|apply HS].
  induction es as [|x t IHt]; constructor; [apply IH|exact IHt].
Qed.
Lemma item_ind' (P : item -> Prop) :
  (forall d, P (IName d)) -> (forall bk k seg fa body, Forall P body -> P (IBlk bk k seg fa body)) ->
  (forall lk seg fa ta, P (ILeaf lk seg fa ta)) -> (forall seg k n elems, P (IPkg seg k n elems)) -> forall it, P it.
Proof.
  intros Hn Hb Hl Hp. fix IH 1. intros [d|bk k seg fa body|lk seg fa ta|seg k n elems]; [apply Hn|apply Hb|apply Hl|apply Hp].
  induction body as [|x t IHt]; constructor; [apply IH|exact IHt].
Qed.

(** induction on lists of package elements *)
Lemma pels_ind (P : list pel -> Prop) :
  P [] -> (forall a rest, P rest -> P (PLeaf a :: rest)) -> (forall k n es rest, P es -> P rest -> P (PSub k n es :: rest)) ->
  forall l, P l.
Proof.
  intros H0 HL HS.
  assert (HQ : forall e rest, P rest -> P (e :: rest)).
  { induction e as [a|k n es IH] using pel_ind'; [apply HL|]. intros rest Hr. apply HS; [|exact Hr].
    induction IH as [|x t Hx _ IHt]; [exact H0|apply Hx; exact IHt]. }
  induction l as [|e t IH]; [exact H0|apply HQ; exact IH].
Qed.

Lemma isz_pos it : (2 <= isz it)%nat.
Proof. destruct it; [cbn; lia|rewrite isz_blk; lia|rewrite isz_leaf; lia|rewrite isz_pkg; lia]. Qed.

(** what is proved over [ParserFragF9.item] for all items holds here through these equations *)
Definition emb_targ (a : targ) : ParserFragF9.targ :=
  match a with TInt d => ParserFragF9.TInt d | TStr b => ParserFragF9.TStr b end.
Fixpoint emb_pel (e : pel) : ParserFragF9.pel :=
  match e with PLeaf a => ParserFragF9.PLeaf (emb_targ a) | PSub k n es => ParserFragF9.PSub k n (map emb_pel es) end.
Fixpoint emb (it : item) : ParserFragF9.item :=
  match it with
  | IName d => ParserFragF9.IName d
  | IBlk bk k seg fa body => ParserFragF9.IBlk bk k seg fa (map emb body)
  | ILeaf lk seg fa ta => ParserFragF9.ILeaf lk seg fa (map emb_targ ta)
  | IPkg seg k n elems => ParserFragF9.IPkg seg k n (map emb_pel elems)
  end.

Lemma flat_map_emb {A B C} (e : A -> B) (f : B -> list C) f' l :
  Forall (fun x => f (e x) = f' x) l -> flat_map f (map e l) = flat_map f' l.
Proof. induction 1 as [|x t Hx _ IH]; [reflexivity|]. cbn [map flat_map]. rewrite Hx, IH. reflexivity. Qed.
Lemma sum_emb {A B} (e : A -> B) (f : B -> nat) f' l :
  Forall (fun x => f (e x) = f' x) l ->
  fold_right (fun x n => (f x + n)%nat) O (map e l) = fold_right (fun x n => (f' x + n)%nat) O l.
Proof. induction 1 as [|x t Hx _ IH]; [reflexivity|]. cbn [map fold_right]. rewrite Hx, IH. reflexivity. Qed.
Lemma forallb_emb {A B} (e : A -> B) (f : B -> bool) f' l :
  Forall (fun x => f (e x) = f' x) l -> forallb f (map e l) = forallb f' l.
Proof. induction 1 as [|x t Hx _ IH]; [reflexivity|]. cbn [map forallb]. rewrite Hx, IH. reflexivity. Qed.

Lemma all_Forall {A} (P : A -> Prop) l : (forall x, P x) -> Forall P l.
Proof. intros H. apply Forall_forall. auto. Qed.

Lemma enc_targ_emb a : ParserFragF9.enc_targ (emb_targ a) = enc_targ a. Proof. destruct a; reflexivity. Qed.
Lemma targ_okb_emb a : ParserFragF9.targ_okb (emb_targ a) = targ_okb a. Proof. destruct a; reflexivity. Qed.
Lemma enc_ta_emb ta : ParserFragF9.enc_ta (map emb_targ ta) = enc_ta ta.
Proof. apply flat_map_emb, all_Forall, enc_targ_emb. Qed.
Lemma targs_okb_emb ta : forallb ParserFragF9.targ_okb (map emb_targ ta) = forallb targ_okb ta.
Proof. apply forallb_emb, all_Forall, targ_okb_emb. Qed.
Lemma cst_pays_emb h tbl ta : forall off, ParserFragF9.cst_pays h tbl off (map emb_targ ta) = cst_pays h tbl off ta.
Proof.
  induction ta as [|a r IH]; intros off; [reflexivity|]. cbn [map ParserFragF9.cst_pays cst_pays].
  rewrite enc_targ_emb, IH. destruct a; reflexivity.
Qed.


Lemma enc_pel_emb e : ParserFragF9.enc_pel (emb_pel e) = enc_pel e.
Proof.
  induction e as [a|k n es IH] using pel_ind'; cbn [emb_pel]; [apply enc_targ_emb|].
  rewrite ParserFragF9.enc_pel_sub, enc_pel_sub. unfold ParserFragF9.enc_pels, enc_pels. rewrite (flat_map_emb _ _ _ _ IH). reflexivity.
Qed.
Lemma enc_pels_emb es : ParserFragF9.enc_pels (map emb_pel es) = enc_pels es.
Proof. apply flat_map_emb, all_Forall, enc_pel_emb. Qed.
Lemma pel_sz_emb e : ParserFragF9.pel_sz (emb_pel e) = pel_sz e.
Proof.
  induction e as [a|k n es IH] using pel_ind'; cbn [emb_pel]; [reflexivity|].
  rewrite ParserFragF9.pel_sz_sub, pel_sz_sub. unfold ParserFragF9.pels_sz, pels_sz. rewrite (sum_emb _ _ _ _ IH). reflexivity.
Qed.
Lemma pels_sz_emb es : ParserFragF9.pels_sz (map emb_pel es) = pels_sz es.
Proof. apply sum_emb, all_Forall, pel_sz_emb. Qed.
Lemma pel_cnt_emb e : ParserFragF9.pel_cnt (emb_pel e) = pel_cnt e.
Proof.
  induction e as [a|k n es IH] using pel_ind'; cbn [emb_pel]; [reflexivity|].
  rewrite ParserFragF9.pel_cnt_sub, pel_cnt_sub. unfold ParserFragF9.pels_cnt, pels_cnt. rewrite (sum_emb _ _ _ _ IH). reflexivity.
Qed.
Lemma pels_cnt_emb es : ParserFragF9.pels_cnt (map emb_pel es) = pels_cnt es.
Proof. apply sum_emb, all_Forall, pel_cnt_emb. Qed.
Lemma pel_okb_emb e : ParserFragF9.pel_okb (emb_pel e) = pel_okb e.
Proof.
  induction e as [a|k n es IH] using pel_ind'; cbn [emb_pel]; [apply targ_okb_emb|].
  rewrite ParserFragF9.pel_okb_sub, pel_okb_sub, enc_pels_emb, (forallb_emb _ _ _ _ IH). reflexivity.
Qed.
Lemma pels_okb_emb es : forallb ParserFragF9.pel_okb (map emb_pel es) = forallb pel_okb es.
Proof. apply forallb_emb, all_Forall, pel_okb_emb. Qed.

Lemma pel_trees_emb h tbl es : Forall (fun e => forall b off, ParserFragF9.pel_tree h tbl b off (emb_pel e) = pel_tree h tbl b off e) es ->
  forall b off, ParserFragF9.pel_trees h tbl b off (map emb_pel es) = pel_trees h tbl b off es.
Proof.
  induction 1 as [|e t He _ IH]; intros b off; [reflexivity|]. cbn [map ParserFragF9.pel_trees pel_trees].
  rewrite He, pel_sz_emb, enc_pel_emb, IH. reflexivity.
Qed.
Lemma pel_tree_emb h tbl e : forall b off, ParserFragF9.pel_tree h tbl b off (emb_pel e) = pel_tree h tbl b off e.
Proof.
  induction e as [a|k n es IH] using pel_ind'; intros b off; cbn [emb_pel]; [destruct a; reflexivity|].
  rewrite ParserFragF9.pel_tree_sub, pel_tree_sub, (pel_trees_emb h tbl es IH). reflexivity.
Qed.
Lemma pkg_tree_emb h tbl b off k n es : ParserFragF9.pkg_tree h tbl b off k n (map emb_pel es) = pkg_tree h tbl b off k n es.
Proof. apply (pel_tree_emb h tbl (PSub k n es)). Qed.

Lemma enc_item_emb it : ParserFragF9.enc_item (emb it) = enc_item it.
Proof.
  induction it as [d|bk k seg fa body IH|lk seg fa ta|seg k n elems] using item_ind'; cbn [emb]; [reflexivity| | |].
  - rewrite ParserFragF9.enc_blk, enc_blk. unfold ParserFragF9.enc_items, enc_items. rewrite (flat_map_emb _ _ _ _ IH). reflexivity.
  - rewrite ParserFragF9.enc_leaf, enc_leaf, enc_ta_emb. reflexivity.
  - rewrite ParserFragF9.enc_pkg_item, enc_pkg_item, enc_pels_emb. reflexivity.
Qed.
Lemma enc_items_emb l : ParserFragF9.enc_items (map emb l) = enc_items l.
Proof. apply flat_map_emb, all_Forall, enc_item_emb. Qed.
Lemma isz_emb it : ParserFragF9.isz (emb it) = isz it.
Proof.
  induction it as [d|bk k seg fa body IH|lk seg fa ta|seg k n elems] using item_ind'; cbn [emb]; [reflexivity| | |].
  - rewrite ParserFragF9.isz_blk, isz_blk. unfold ParserFragF9.iszs, iszs. rewrite (sum_emb _ _ _ _ IH). reflexivity.
  - rewrite ParserFragF9.isz_leaf, isz_leaf, map_length. reflexivity.
  - rewrite ParserFragF9.isz_pkg, isz_pkg, pels_sz_emb. reflexivity.
Qed.
Lemma iszs_emb l : ParserFragF9.iszs (map emb l) = iszs l.
Proof. apply sum_emb, all_Forall, isz_emb. Qed.
Lemma icnt_emb it : ParserFragF9.icnt (emb it) = icnt it.
Proof.
  induction it as [d|bk k seg fa body IH|lk seg fa ta|seg k n elems] using item_ind'; cbn [emb]; [reflexivity| | |].
  - rewrite ParserFragF9.icnt_blk, icnt_blk. unfold ParserFragF9.icnts, icnts. rewrite (sum_emb _ _ _ _ IH). reflexivity.
  - rewrite ParserFragF9.icnt_leaf, icnt_leaf, map_length. reflexivity.
  - cbn [ParserFragF9.icnt icnt]. rewrite pels_cnt_emb. reflexivity.
Qed.
Lemma icnts_emb l : ParserFragF9.icnts (map emb l) = icnts l.
Proof. apply sum_emb, all_Forall, icnt_emb. Qed.
Lemma item_okb_emb it : ParserFragF9.item_okb (emb it) = item_okb it.
Proof.
  induction it as [d|bk k seg fa body IH|lk seg fa ta|seg k n elems] using item_ind'; cbn [emb]; [reflexivity| | |].
  - cbn [ParserFragF9.item_okb item_okb]. rewrite (flat_map_emb _ _ _ _ (all_Forall _ body enc_item_emb)), (forallb_emb _ _ _ _ IH). reflexivity.
  - cbn [ParserFragF9.item_okb item_okb]. rewrite map_length, targs_okb_emb. reflexivity.
  - cbn [ParserFragF9.item_okb item_okb]. rewrite enc_pels_emb, pels_okb_emb. reflexivity.
Qed.
Lemma items_okb_emb l : forallb ParserFragF9.item_okb (map emb l) = forallb item_okb l.
Proof. apply forallb_emb, all_Forall, item_okb_emb. Qed.

Section LayEmb.
Variable h tbl : N.
Lemma lay1s_emb l : Forall (fun x => forall b off, ParserFragF9.lay1_item h tbl b off (emb x) = lay1_item h tbl b off x) l ->
  forall b off, ParserFragF9.lay1 h tbl b off (map emb l) = lay1 h tbl b off l.
Proof.
  induction 1 as [|x t Hx _ IH]; intros b off; [reflexivity|]. cbn [map ParserFragF9.lay1 lay1].
  rewrite Hx, isz_emb, enc_item_emb, IH. reflexivity.
Qed.
Lemma lay1_item_emb it : forall b off, ParserFragF9.lay1_item h tbl b off (emb it) = lay1_item h tbl b off it.
Proof.
  induction it as [d|bk k seg fa body IH|lk seg fa ta|seg k n elems] using item_ind'; intros b off; cbn [emb]; [reflexivity| | |].
  - rewrite ParserFragF9.lay1_blk, lay1_blk, (lay1s_emb body IH). reflexivity.
  - cbn [ParserFragF9.lay1_item lay1_item]. rewrite cst_pays_emb. reflexivity.
  - cbn [ParserFragF9.lay1_item lay1_item]. rewrite pkg_tree_emb. reflexivity.
Qed.
Lemma lay1_emb l b off : ParserFragF9.lay1 h tbl b off (map emb l) = lay1 h tbl b off l.
Proof. apply lay1s_emb, all_Forall, lay1_item_emb. Qed.

Lemma lay2s_emb l : Forall (fun x => forall b off, ParserFragF9.lay2_item h tbl b off (emb x) = lay2_item h tbl b off x) l ->
  forall b off, ParserFragF9.lay2 h tbl b off (map emb l) = lay2 h tbl b off l.
Proof.
  induction 1 as [|x t Hx _ IH]; intros b off; [reflexivity|]. cbn [map ParserFragF9.lay2 lay2].
  rewrite Hx, isz_emb, enc_item_emb, IH. reflexivity.
Qed.
Lemma lay2_item_emb it : forall b off, ParserFragF9.lay2_item h tbl b off (emb it) = lay2_item h tbl b off it.
Proof.
  induction it as [d|bk k seg fa body IH|lk seg fa ta|seg k n elems] using item_ind'; intros b off; cbn [emb]; [reflexivity| | |].
  - rewrite ParserFragF9.lay2_blk, lay2_blk, (lay2s_emb body IH). reflexivity.
  - cbn [ParserFragF9.lay2_item lay2_item]. rewrite cst_pays_emb. reflexivity.
  - cbn [ParserFragF9.lay2_item lay2_item]. rewrite pkg_tree_emb. reflexivity.
Qed.
Lemma lay2_emb l b off : ParserFragF9.lay2 h tbl b off (map emb l) = lay2 h tbl b off l.
Proof. apply lay2s_emb, all_Forall, lay2_item_emb. Qed.

(* no statements among the embedded items: resolveMethodCalls leaves their tree as it is *)
Lemma lay5s_emb l : Forall (fun x => forall b off, ParserFragF9.lay5_item h tbl b off (emb x) = lay2_item h tbl b off x) l ->
  forall b off, ParserFragF9.lay5 h tbl b off (map emb l) = lay2 h tbl b off l.
Proof.
  induction 1 as [|x t Hx _ IH]; intros b off; [reflexivity|]. cbn [map ParserFragF9.lay5 lay2].
  rewrite Hx, isz_emb, enc_item_emb, IH. reflexivity.
Qed.
Lemma lay5_item_emb it : forall b off, ParserFragF9.lay5_item h tbl b off (emb it) = lay2_item h tbl b off it.
Proof.
  induction it as [d|bk k seg fa body IH|lk seg fa ta|seg k n elems] using item_ind'; intros b off; cbn [emb]; [reflexivity| | |].
  - rewrite ParserFragF9.lay5_blk, lay2_blk, (lay5s_emb body IH). reflexivity.
  - cbn [ParserFragF9.lay5_item lay2_item]. rewrite cst_pays_emb. reflexivity.
  - cbn [ParserFragF9.lay5_item lay2_item]. rewrite pkg_tree_emb. reflexivity.
Qed.
Lemma lay5_emb l b off : ParserFragF9.lay5 h tbl b off (map emb l) = lay2 h tbl b off l.
Proof. apply lay5s_emb, all_Forall, lay5_item_emb. Qed.
End LayEmb.
