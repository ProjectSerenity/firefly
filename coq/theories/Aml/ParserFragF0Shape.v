(** C11 (fragments): the free list of the forest [g_decls] after a run of Name declarations stays empty. *)
From Coq Require Import NArith List.
From FF Require Import Aml.TreeSpec Aml.ParserFragF0.
Import ListNotations.
Local Open Scope N_scope.

Lemma free_g_decls ds : forall g sc, g_free g = [] -> g_free (g_decls g sc ds) = [].
Proof. induction ds as [|d ds IH]; intros g sc Hf; cbn [g_decls]; [exact Hf|]. apply IH. reflexivity. Qed.
