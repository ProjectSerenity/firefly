(** C11 (fragment F9): [parse_encode] for ONE table whose items are those of F8 without Scope directives (Name with an
    integer / string / package value, Device / ThermalZone / Processor / PowerResource / Method blocks, Mutex, Event,
    OperationRegion; single-segment names, nested to any depth) and statements [op(c1, ..., cn)] with constant operands,
    anywhere an item may stand.  The recogniser [in_fragment_F9] reads the items off the AST ([f9_item]); the namespace
    [ns] of such a program is the sorted listing [sentries] (ParserFragF9View.v), which the view of the parsed tree
    permutes. *)
From Coq Require Import NArith ZArith Arith List Bool Lia Permutation.
From Coq Require Import ZifyBool ZifyN ZifyNat.
From FF Require Import Lib.Word Gen.Consts_device_acpi_aml Gen.Consts_aml_tree Aml.Stream Aml.Lex Aml.LexProofs
  Aml.Tree Aml.TreeSpec Aml.Parser Aml.Grammar Aml.LexRoundtrip
  Aml.ParserFragBase Aml.ParserFragFirst Aml.ParserFragF0 Aml.ParserFragF0Conn Aml.ParserFragF0Top
  Aml.ParserFragRose Aml.ParserFragDev Aml.ParserFragArgs Aml.ParserFragF9 Aml.ParserFragF9First Aml.ParserFragF9Conn Aml.ParserFragF9Top Aml.ParserFragF9Calls Aml.ParserFragF9Parse
  Aml.View Aml.ParserFragView Aml.ParserFragF0Final Aml.ParserFragSort Aml.ParserFragF9View Aml.WfProgram.
Import ListNotations.
Local Open Scope N_scope.

Definition blk_ast (bk : bkind) (k : N) (nm : namestr) (fa : list N) (b : list ast) : ast :=
  match bk with
  | BDev => ADevice k nm b
  | BTZ => AThermal k nm b
  | BProc => AProcessor k nm (nth 0 fa 0) (nth 1 fa 0) (nth 2 fa 0) b
  | BPwr => APowerRes k nm (nth 0 fa 0) (nth 1 fa 0) b
  | BMeth => AMethod k nm (nth 0 fa 0) b
  end.

Definition cst_ast (d : decl) : ast := AConst (d_op d) (d_v d).
Definition targ_ast (a : targ) : ast := match a with TInt d => cst_ast d | TStr b => AStr b end.
Definition leaf_ast (lk : lkind) (nm : namestr) (fa : list N) (ta : list targ) : ast :=
  match lk with
  | LMutex => AMutex nm (nth 0 fa 0)
  | LEvent => AEvent nm
  | LOpReg => AOpRegion nm (nth 0 fa 0) (targ_ast (nth 0 ta (TInt (mkDecl 0 0 0)))) (targ_ast (nth 1 ta (TInt (mkDecl 0 0 0))))
  | LName => AName nm (targ_ast (nth 0 ta (TInt (mkDecl 0 0 0))))
  end.

Fixpoint pel_ast (x : pel) : ast :=
  match x with PLeaf a => targ_ast a | PSub k n es => APackage k n (map pel_ast es) end.

Fixpoint item_ast (it : item) : ast :=
  match it with
  | IName d => decl_ast d
  | IBlk bk k seg fa body => blk_ast bk k (seg_name seg) fa (map item_ast body)
  | ILeaf lk seg fa ta => leaf_ast lk (seg_name seg) fa ta
  | IPkg seg k n elems => AName (seg_name seg) (APackage k n (map pel_ast elems))
  | IStmt sk ta => AOp (sk_op sk) (map targ_ast ta)
  end.

(** the right number of fixed arguments everywhere *)
Fixpoint shape_ok (it : item) : bool :=
  match it with
  | IName _ => true
  | IBlk bk _ _ fa body => Nat.eqb (length fa) (length (bk_ws bk)) && forallb shape_ok body
  | ILeaf lk _ fa ta => Nat.eqb (length fa) (length (lk_ws lk)) && Nat.eqb (length ta) (lk_nt lk)
  | IPkg _ _ _ _ => true
  | IStmt _ _ => true
  end.

Definition nostmt (it : item) : bool := match it with IStmt _ _ => false | _ => true end.

Definition simple_name (nm : namestr) : option N :=
  match n_segs nm with
  | [seg] => if negb (n_root nm) && (n_carets nm =? 0) && negb (n_multi nm) then Some seg else None
  | _ => None
  end.

Lemma simple_name_eq nm seg : simple_name nm = Some seg -> nm = seg_name seg.
Proof.
  unfold simple_name. destruct nm as [root carets multi segs]. cbn [n_segs n_root n_carets n_multi].
  destruct segs as [|s [|s2 segs]]; try discriminate.
  destruct root; cbn [negb andb]; try discriminate.
  destruct (N.eqb_spec carets 0) as [->|]; cbn [andb]; try discriminate.
  destruct multi; cbn [negb]; try discriminate.
  intros E; inversion E. reflexivity.
Qed.

(** ---- encoding ---- *)
Lemma encode_targs elems : flat_map encode (map targ_ast elems) = enc_ta elems.
Proof. unfold enc_ta. induction elems as [|a r IH]; [reflexivity|]. cbn [map flat_map]. rewrite IH. destruct a; reflexivity. Qed.

Lemma encode_pels : forall els, flat_map encode (map pel_ast els) = enc_pels els.
Proof.
  induction els as [|a r IH|k n es r IHe IH] using pels_ind; [reflexivity| |]; cbn [map flat_map]; rewrite IH, enc_pels_cons; f_equal.
  - cbn [pel_ast enc_pel]. destruct a; reflexivity.
  - cbn [pel_ast encode]. unfold enc_pkg. rewrite IHe, enc_pel_sub. reflexivity.
Qed.

Lemma encode_item : forall it, shape_ok it = true -> encode (item_ast it) = enc_item it.
Proof.
  fix IH 1. intros [d|bk k seg fa body|lk seg fa ta|seg k n elems|sk ta] Hs.
  5:{ cbn [item_ast encode]. rewrite encode_targs, enc_stmt. reflexivity. }
  - apply encode_decl.
  - cbn [shape_ok] in Hs. apply andb_prop in Hs. destruct Hs as [Hl Hb]. apply Nat.eqb_eq in Hl.
    assert (HL : flat_map encode (map item_ast body) = enc_items body).
    { clear Hl. induction body as [|x t IHt]; [reflexivity|]. cbn [forallb] in Hb. apply andb_prop in Hb. destruct Hb as [Hx Ht].
      cbn [map flat_map]. rewrite (IH x Hx), (IHt Ht). reflexivity. }
    rewrite enc_blk. cbn [item_ast].
    destruct bk; cbn [bk_ws length] in Hl; (destruct fa as [|a0 [|a1 [|a2 [|a3 fa]]]]; try discriminate Hl);
      cbn [blk_ast encode nth]; unfold enc_pkg; rewrite enc_seg_name, HL; cbn [bfx bk_ws combine enc_fx fw_enc bk_op app];
      rewrite <- ?app_assoc; reflexivity.
  - cbn [shape_ok] in Hs. apply andb_prop in Hs. destruct Hs as [Hl Ht]. apply Nat.eqb_eq in Hl. apply Nat.eqb_eq in Ht.
    rewrite enc_leaf. cbn [item_ast].
    destruct lk; cbn [lk_ws lk_nt length] in Hl, Ht; (destruct fa as [|a0 [|a1 fa]]; try discriminate Hl); (destruct ta as [|c0 [|c1 [|c2 ta]]]; try discriminate Ht);
      repeat match goal with c : targ |- _ => destruct c end;
      cbn [leaf_ast targ_ast cst_ast encode nth]; rewrite enc_seg_name; cbn [lfx lk_ws combine enc_fx fw_enc lk_op enc_ta enc_targ flat_map app]; unfold enc_const;
      rewrite ?app_nil_r, <- ?app_assoc; cbn [app]; rewrite <- ?app_assoc; reflexivity.
  - cbn [item_ast encode]. unfold enc_pkg. rewrite enc_seg_name, encode_pels, enc_pkg_item. reflexivity.
Qed.

Lemma encode_items its : forallb shape_ok its = true -> encode_table (map item_ast its) = enc_items its.
Proof.
  unfold encode_table, enc_items. induction its as [|x t IH]; intros Hs; [reflexivity|]. cbn [forallb] in Hs. apply andb_prop in Hs. destruct Hs as [Hx Ht].
  cbn [map flat_map]. rewrite (encode_item x Hx), (IH Ht). reflexivity.
Qed.

(** ---- well-formedness ---- *)
Lemma wf_pels e ms scope : forall els,
  (fix allexpr (l : list ast) : bool := match l with [] => true | x :: r => is_expr x && wf_ast e ms scope x && allexpr r end) (map pel_ast els) = true ->
  forallb pel_okb els = true.
Proof.
  induction els as [|a r IH|k n es r IHe IH] using pels_ind; intros Ha; [reflexivity| |];
    cbn [map] in Ha; apply andb_prop in Ha; destruct Ha as [Ha Hr]; apply andb_prop in Ha; destruct Ha as [_ Ha];
    cbn [forallb]; rewrite (IH Hr), andb_true_r.
  - cbn [pel_ast pel_okb] in *. destruct a as [d|b]; cbn [targ_ast cst_ast wf_ast targ_okb] in *; [|exact Ha].
    unfold cst_okb. apply andb_prop in Ha. destruct Ha as [Hc Hv]. rewrite N.shiftl_1_l in Hv. rewrite Hv, andb_true_r. exact Hc.
  - cbn [pel_ast wf_ast] in Ha. apply andb_prop in Ha. destruct Ha as [Ha Hkk]. apply andb_prop in Ha. destruct Ha as [Hn Hall].
    rewrite sumlen_eq, encode_pels in Hkk. rewrite pel_okb_sub, Hn, (IHe Hall), andb_true_r, andb_true_l.
    eapply pkglen_of_k; [exact Hkk|]. rewrite lenN_app. reflexivity.
Qed.

Lemma wf_targs e ms scope : forall ta,
  (fix allexpr (l : list ast) : bool := match l with [] => true | x :: r => is_expr x && wf_ast e ms scope x && allexpr r end) (map targ_ast ta) = true ->
  forallb targ_okb ta = true.
Proof.
  induction ta as [|a r IH]; intros Ha; [reflexivity|].
  cbn [map] in Ha. apply andb_prop in Ha. destruct Ha as [Ha Hr]. apply andb_prop in Ha. destruct Ha as [_ Ha].
  cbn [forallb]. rewrite (IH Hr), andb_true_r.
  destruct a as [d|b]; cbn [targ_ast cst_ast wf_ast targ_okb] in *; [|exact Ha].
  unfold cst_okb. apply andb_prop in Ha. destruct Ha as [Hc Hv]. rewrite N.shiftl_1_l in Hv. rewrite Hv, andb_true_r. exact Hc.
Qed.

(** the operands of a statement ([wf_ast] goes through them position by position: none of them is the null target) *)
Lemma wf_sargs e ms scope : forall ta tys,
  (fix allargs (tys : list N) (l : list ast) : bool :=
     match l with
     | [] => true
     | x :: r => (if is_null x then is_target_ty (hd 0 tys) else is_expr x && wf_ast e ms scope x) && allargs (tl tys) r
     end) tys (map targ_ast ta) = true ->
  forallb targ_okb ta = true.
Proof.
  induction ta as [|a r IH]; intros tys Ha; [reflexivity|].
  cbn [map] in Ha. apply andb_prop in Ha. destruct Ha as [Ha Hr].
  cbn [forallb]. rewrite (IH _ Hr), andb_true_r.
  destruct a as [d|b]; cbn [targ_ast cst_ast is_null is_expr wf_ast targ_okb andb] in *; [|exact Ha].
  unfold cst_okb. apply andb_prop in Ha. destruct Ha as [Hc Hv]. rewrite N.shiftl_1_l in Hv. rewrite Hv, andb_true_r. exact Hc.
Qed.

Lemma wf_item e ms : forall it scope, shape_ok it = true -> wf_ast e ms scope (item_ast it) = true -> item_okb it = true.
Proof.
  fix IH 1. intros [d|bk k seg fa body|lk seg fa ta|seg k n elems|sk ta] scope Hs Hw.
  5:{ cbn [item_ast wf_ast] in Hw. cbn [item_okb]. apply andb_prop in Hw. destruct Hw as [Har Hall]. apply andb_prop in Har. destruct Har as [Har _].
      assert (Ear : op_arity (sk_op sk) = Some (N.of_nat (sk_n sk))) by (destruct sk; reflexivity). rewrite Ear in Har.
      apply N.eqb_eq in Har. unfold lenN in Har. rewrite map_length in Har.
      apply andb_true_intro. split; [apply Nat.eqb_eq; lia|]. apply (wf_sargs e ms scope ta (op_argtypes (sk_op sk))). exact Hall. }
  - cbn [item_ast item_okb]. unfold decl_ast in Hw. cbn [wf_ast] in Hw.
    apply andb_prop in Hw. destruct Hw as [Hw _]. apply andb_prop in Hw. destruct Hw as [Hw Hc].
    apply andb_prop in Hw. destruct Hw as [Hn _].
    unfold name_ok in Hn. cbn [n_segs forallb] in Hn. apply andb_prop in Hn. destruct Hn as [_ Hn].
    apply andb_prop in Hn. destruct Hn as [Hseg _].
    unfold seg_ok, seg_bytes in Hseg. repeat (apply andb_prop in Hseg; destruct Hseg as [Hseg ?]).
    apply andb_prop in Hc. destruct Hc as [Hc Hv].
    apply andb_true_intro. split; [|assumption].
    unfold decl_okb. apply andb_true_intro. split; [apply andb_true_intro; split|]; [assumption|exact Hc|rewrite N.shiftl_1_l in Hv; exact Hv].
  - cbn [shape_ok] in Hs. apply andb_prop in Hs. destruct Hs as [Hl Hb]. pose proof Hl as Hl'. apply Nat.eqb_eq in Hl.
    assert (HL : flat_map encode (map item_ast body) = enc_items body).
    { clear -Hb. induction body as [|x t IHt]; [reflexivity|]. cbn [forallb] in Hb. apply andb_prop in Hb. destruct Hb as [Hx Ht].
      cbn [map flat_map]. rewrite (encode_item x Hx), (IHt Ht). reflexivity. }
    assert (HB : forall sc, (fix all (l : list ast) (sc : path) : bool := match l with [] => true | x :: r => wf_ast e ms sc x && all r sc end) (map item_ast body) sc = true ->
                 forallb item_okb body = true).
    { clear -IH Hb. intros sc. induction body as [|x t IHt]; intros Hall; [reflexivity|]. cbn [forallb] in Hb. apply andb_prop in Hb. destruct Hb as [Hx Ht].
      cbn [map] in Hall. apply andb_prop in Hall. destruct Hall as [Hwx Hwt]. cbn [forallb]. rewrite (IH x sc Hx Hwx). apply IHt; assumption. }
    cbn [item_okb]. rewrite Hl'. cbn [item_ast] in Hw.
    assert (Hdp : decl_path scope (seg_name seg) = Some (scope ++ [seg])).
    { unfold decl_path, start_scope. cbn [seg_name n_root n_carets n_segs]. destruct (lenN scope <? 0) eqn:E0; [apply N.ltb_lt in E0; lia|].
      change (N.to_nat 0) with 0%nat. rewrite Nat.sub_0_r, firstn_all. reflexivity. }
    destruct bk; cbn [bk_ws length] in Hl; (destruct fa as [|a0 [|a1 [|a2 [|a3 fa]]]]; try discriminate Hl);
      cbn [blk_ast wf_ast nth] in Hw; rewrite Hdp, sumlen_eq, HL, enc_seg_name in Hw;
      remember (name_ok (seg_name seg)) as NOK eqn:ENOK;
      repeat (apply andb_prop in Hw; destruct Hw as [Hw ?]); subst NOK;
      destruct (seg_ok_parts seg Hw) as (Hlead & Hseg);
      rewrite Hlead, Hseg; cbn [andb bfx bk_ws combine fx_okb forallb enc_fx fw_enc app];
      repeat (apply andb_true_intro; split); try assumption; try (eapply HB; eassumption);
      try (eapply pkglen_of_k; [eassumption|]; unfold enc_items, lenN; repeat (rewrite ?app_length, ?len_le_bytes; cbn [length]); lia).
  - cbn [shape_ok] in Hs. apply andb_prop in Hs. destruct Hs as [Hl Ht]. pose proof Hl as Hl'. pose proof Ht as Ht'. apply Nat.eqb_eq in Hl. apply Nat.eqb_eq in Ht.
    cbn [item_okb]. rewrite Hl', Ht'. cbn [item_ast] in Hw.
    destruct lk; cbn [lk_ws lk_nt length] in Hl, Ht; (destruct fa as [|a0 [|a1 fa]]; try discriminate Hl); (destruct ta as [|c0 [|c1 [|c2 ta]]]; try discriminate Ht);
      repeat match goal with c : targ |- _ => destruct c end;
      cbn [leaf_ast targ_ast cst_ast wf_ast nth is_expr] in Hw;
      remember (name_ok (seg_name seg)) as NOK eqn:ENOK;
      repeat (apply andb_prop in Hw; destruct Hw as [Hw ?]); subst NOK;
      destruct (seg_ok_parts seg Hw) as (Hlead & Hseg);
      rewrite Hlead, Hseg; cbn [andb lfx lk_ws combine fx_okb forallb targ_okb]; unfold cst_okb;
      repeat (apply andb_true_intro; split); try assumption; try reflexivity;
      try (match goal with Hv : (_ <? N.shiftl 1 _) = true |- _ => rewrite N.shiftl_1_l in Hv; exact Hv end);
      try (match goal with Hc : is_const_op (d_op ?c) && _ = true |- is_constb (d_op ?c) = true => apply andb_prop in Hc; exact (proj1 Hc) end);
      try (match goal with Hc : is_const_op (d_op ?c) && _ = true |- (d_v ?c <? _) = true => apply andb_prop in Hc; destruct Hc as [_ Hc]; rewrite N.shiftl_1_l in Hc; exact Hc end).
  - cbn [item_ast wf_ast is_expr] in Hw. cbn [item_okb].
    remember (name_ok (seg_name seg)) as NOK eqn:ENOK.
    repeat (apply andb_prop in Hw; destruct Hw as [Hw ?]); subst NOK.
    destruct (seg_ok_parts seg Hw) as (Hlead & Hseg). rewrite Hlead, Hseg. cbn [andb].
    match goal with H0 : (n <? 256) && _ && _ = true |- _ => apply andb_prop in H0; destruct H0 as [H0 Hkk]; apply andb_prop in H0; destruct H0 as [Hn Hall] end.
    rewrite sumlen_eq, encode_pels in Hkk.
    repeat (apply andb_true_intro; split); try assumption.
    + eapply pkglen_of_k; [exact Hkk|]. rewrite lenN_app. reflexivity.
    + apply (wf_pels e ms scope). exact Hall.
Qed.

Lemma wf_items e ms its : forallb shape_ok its = true -> forallb (wf_ast e ms []) (map item_ast its) = true -> forallb item_okb its = true.
Proof.
  induction its as [|x t IH]; intros Hs Hw; [reflexivity|]. cbn [map forallb] in Hs, Hw |- *. apply andb_prop in Hw. destruct Hw as [Hx Ht].
  apply andb_prop in Hs. destruct Hs as [Hsx Hst].
  rewrite (wf_item e ms x [] Hsx Hx), (IH Hst Ht). reflexivity.
Qed.

(** ---- the specification side ---- *)
Lemma item_is_decl it : is_decl (item_ast it) = nostmt it /\ is_fieldcontainer (item_ast it) = false.
Proof. destruct it as [d|bk k seg fa body|lk seg fa ta|seg k n elems|sk ta]; [split; reflexivity|destruct bk; split; reflexivity|destruct lk; split; reflexivity|split; reflexivity|split; reflexivity]. Qed.

Lemma r_targ e scope a : r_expr e scope (targ_ast a) = targ_tokens a.
Proof.
  destruct a as [d|b]; [|reflexivity]. unfold targ_ast, targ_tokens, cst_ast, cst_tokens. cbn [r_expr]. unfold const_tokens, const_val, tok_const. destruct (const_bytes (d_op d)); reflexivity.
Qed.

Lemma r_stmt_item e scope sk ta : r_stmt e scope (AOp (sk_op sk) (map targ_ast ta)) = stmt_tokens sk ta.
Proof.
  assert (En : (sk_op sk =? OP_NOOP) = false) by (destruct sk; reflexivity).
  cbn [r_stmt is_noop]. rewrite En. cbn [r_expr]. unfold stmt_tokens.
  assert (Ef : filter (fun x => negb (is_null x)) (map targ_ast ta) = map targ_ast ta).
  { clear. induction ta as [|a r IH]; [reflexivity|]. cbn [map filter]. destruct a; cbn [targ_ast cst_ast is_null negb]; rewrite IH; reflexivity. }
  rewrite Ef. unfold lenN. rewrite map_length. cbn [app]. f_equal. f_equal. f_equal.
  clear. induction ta as [|a r IH]; [reflexivity|]. cbn [map flat_map]. rewrite IH. f_equal. rewrite <- (r_targ e scope a). destruct a; reflexivity.
Qed.

Lemma r_seq_items e sc : forall body, r_seq e sc (map item_ast body) = concat (vstmts body).
Proof.
  unfold r_seq, vstmts. induction body as [|x t IHt]; [reflexivity|]. cbn [map flat_map]. rewrite IHt.
  destruct (item_is_decl x) as (E1 & E2). rewrite E1, E2.
  destruct x as [d|bk k seg fa body|lk seg fa ta|seg k n elems|sk ta]; cbn [nostmt orb stmt_of app concat]; try reflexivity.
  cbn [item_ast]. rewrite r_stmt_item. reflexivity.
Qed.

Lemma vstmts_nostmt body : forallb nostmt body = true -> vstmts body = [].
Proof.
  unfold vstmts. induction body as [|x t IH]; intros Hn; [reflexivity|]. cbn [forallb] in Hn. apply andb_prop in Hn. destruct Hn as [Hx Ht].
  cbn [flat_map]. rewrite (IH Ht). destruct x; try discriminate; reflexivity.
Qed.

Lemma sentry_nostmt it p : nostmt it = true -> sentry true p it = sentry false p it.
Proof. destruct it; try discriminate; reflexivity. Qed.

Lemma entries_item e : forall it scope, shape_ok it = true -> entries e scope (item_ast it) = sentry false scope it.
Proof.
  fix IH 1. intros [d|bk k seg fa body|lk seg fa ta|seg k n elems|sk ta] scope Hs.
  5:{ assert (En : (sk_op sk =? OP_NOOP) = false) by (destruct sk; reflexivity).
      cbn [item_ast entries is_noop sentry]. rewrite En, r_stmt_item. reflexivity. }
  - cbn [item_ast sentry]. unfold decl_ast, name_entry. cbn [entries]. unfold decl_path, start_scope. cbn [n_root n_carets n_segs].
    destruct (lenN scope <? 0) eqn:E0; [apply N.ltb_lt in E0; lia|]. change (N.to_nat 0) with 0%nat. rewrite Nat.sub_0_r, firstn_all.
    cbn [r_expr]. unfold const_tokens, const_val, tok_const. destruct (const_bytes (d_op d)); reflexivity.
  - cbn [shape_ok] in Hs. apply andb_prop in Hs. destruct Hs as [Hl Hb]. apply Nat.eqb_eq in Hl.
    assert (Hdp : decl_path scope (seg_name seg) = Some (scope ++ [seg])).
    { unfold decl_path, start_scope. cbn [seg_name n_root n_carets n_segs]. destruct (lenN scope <? 0) eqn:E0; [apply N.ltb_lt in E0; lia|].
      change (N.to_nat 0) with 0%nat. rewrite Nat.sub_0_r, firstn_all. reflexivity. }
    assert (HBody : forall sc,
                      (fix body (l : list ast) (sc : path) : list (list N) := match l with [] => [] | x :: r => entries e sc x ++ body r sc end) (map item_ast body) sc =
                               flat_map (sentry false sc) body).
    { clear -IH Hb. intros sc. induction body as [|x t IHt]; [reflexivity|]. cbn [forallb] in Hb.
      apply andb_prop in Hb. destruct Hb as [Hx Ht].
      cbn [map flat_map]. rewrite (IH x sc Hx), (IHt Ht). reflexivity. }
    assert (HDecls : forall sc, (fix decls (l : list ast) (sc : path) : list (list N) :=
                       match l with [] => [] | x :: r => (if is_decl x || is_fieldcontainer x then entries e sc x else []) ++ decls r sc end) (map item_ast body) sc =
                               flat_map (sentry true sc) body).
    { clear -IH Hb. intros sc. induction body as [|x t IHt]; [reflexivity|]. cbn [forallb] in Hb.
      apply andb_prop in Hb. destruct Hb as [Hx Ht].
      cbn [map flat_map]. destruct (item_is_decl x) as (E1 & E2). rewrite E1, E2, (IHt Ht). cbn [orb].
      destruct (nostmt x) eqn:En; [rewrite (IH x sc Hx), (sentry_nostmt x sc En); reflexivity|]. destruct x; try discriminate En. reflexivity. }
    cbn [item_ast sentry]. fold (vstmts body).
    destruct bk; cbn [bk_ws length] in Hl; (destruct fa as [|a0 [|a1 [|a2 [|a3 fa]]]]; try discriminate Hl);
      cbn [blk_ast entries nth]; rewrite Hdp; rewrite ?HBody, ?HDecls, ?r_seq_items; unfold blk_entry;
      cbn [bfx bk_ws combine flat_map fw_op bk_op app];
      repeat match goal with |- context [?a =? aml_pOpMethod] => let c := eval vm_compute in (a =? aml_pOpMethod) in change (a =? aml_pOpMethod) with c end; cbv iota;
      rewrite ?app_nil_r, <- ?app_assoc; reflexivity.
  - cbn [shape_ok] in Hs. apply andb_prop in Hs. destruct Hs as [Hl Ht]. apply Nat.eqb_eq in Hl. apply Nat.eqb_eq in Ht.
    assert (Hdp : decl_path scope (seg_name seg) = Some (scope ++ [seg])).
    { unfold decl_path, start_scope. cbn [seg_name n_root n_carets n_segs]. destruct (lenN scope <? 0) eqn:E0; [apply N.ltb_lt in E0; lia|].
      change (N.to_nat 0) with 0%nat. rewrite Nat.sub_0_r, firstn_all. reflexivity. }
    assert (Hcst : forall a, r_expr e scope (targ_ast a) = targ_tokens a) by (intros a; apply r_targ).
    cbn [item_ast sentry].
    destruct lk; cbn [lk_ws lk_nt length] in Hl, Ht; (destruct fa as [|a0 [|a1 fa]]; try discriminate Hl); (destruct ta as [|c0 [|c1 [|c2 ta]]]; try discriminate Ht);
      cbn [leaf_ast entries nth]; rewrite Hdp; rewrite ?Hcst; unfold leaf_entry; cbn [lfx lk_ws combine flat_map fw_op lk_op app];
      rewrite ?app_nil_r, <- ?app_assoc; reflexivity.
  - assert (Hdp : decl_path scope (seg_name seg) = Some (scope ++ [seg])).
    { unfold decl_path, start_scope. cbn [seg_name n_root n_carets n_segs]. destruct (lenN scope <? 0) eqn:E0; [apply N.ltb_lt in E0; lia|].
      change (N.to_nat 0) with 0%nat. rewrite Nat.sub_0_r, firstn_all. reflexivity. }
    assert (Hcst : forall els, flat_map (r_expr e scope) (map pel_ast els) = flat_map pel_tokens els).
    { clear. induction els as [|a r IHr|k n es r IHe IHr] using pels_ind; [reflexivity| |]; cbn [map flat_map]; rewrite IHr; f_equal.
      - cbn [pel_ast pel_tokens]. apply r_targ.
      - cbn [pel_ast pel_tokens r_expr]. rewrite IHe. unfold lenN. rewrite map_length. reflexivity. }
    cbn [item_ast sentry entries]. rewrite Hdp. cbn [r_expr]. rewrite Hcst. unfold pkg_entry, lenN. rewrite map_length. reflexivity.
Qed.

Lemma entries_items e its : forallb shape_ok its = true -> flat_map (entries e []) (map item_ast its) = sentries false [] its.
Proof.
  unfold sentries. induction its as [|x t IH]; intros Hs; [reflexivity|]. cbn [forallb] in Hs.
  apply andb_prop in Hs. destruct Hs as [Hx Ht].
  cbn [map flat_map]. rewrite (entries_item e x [] Hx), (IH Ht). reflexivity.
Qed.

Lemma root_len5 g pl its : Desc g pl (root_tree5 its) -> (6 + iszs its <= length pl)%nat.
Proof.
  intros HD. assert (Hin : In (5 + N.of_nat (iszs its)) (rnodes (root_tree5 its))) by (apply root_tree5_nodes; lia).
  destruct (Desc_lookup g pl _ HD _ Hin) as (a & ks & Dy). destruct (Desc_inv _ _ _ _ _ Dy) as (Py & _ & _).
  apply pget_lt in Py. lia.
Qed.

(** the end-to-end statement over items *)
Theorem parse_encode_items9 its :
  forallb shape_ok its = true ->
  wf_program [map item_ast its] = true -> lenN (encode_table (map item_ast its)) < 0x10000000 ->
  parse_encode_statement [map item_ast its].
Proof.
  intros Hshape Hwf Hfr.
  unfold wf_program in Hwf. cbn [wf_tables app] in Hwf. apply andb_prop in Hwf. destruct Hwf as [Hwf _].
  pose proof (wf_items _ _ its Hshape Hwf) as Hok.
  rewrite (encode_items its Hshape) in Hfr.
  unfold parse_encode_statement, parse_program, load. cbn [map].
  destruct default_rep as (t0 & Et0 & H0). rewrite Et0. cbn [load_tables]. rewrite (encode_items its Hshape).
  destruct (parse_f9x its t0 Hok Hfr H0) as (s' & gF & plF & Eparse & HF & DF & Etb & _).
  rewrite Eparse. cbn [load_tables app]. change (0 =? 0) with true. cbv iota.
  rewrite (view_f9 (p_tree s') gF plF HF [table_image (enc_items its)] its (hdr_of (enc_items its)) DF Hok (root_len5 _ _ _ DF) ltac:(rewrite table_image_hdr; reflexivity) eq_refl).
  unfold ns. cbn [flat_map]. rewrite app_nil_r, (entries_items _ its Hshape).
  f_equal. apply sort_perm. apply ventries_perm.
Qed.

(** ---- the fragment F9 as a predicate on programs ---- *)
Definition sk_of_op (op : N) : option skind :=
  if op =? 0xa4 then Some SRet else if op =? 0x121 then Some SSleep else if op =? 0x120 then Some SStall else if op =? 0x92 then Some SLNot
  else if op =? 0x90 then Some SLAnd else if op =? 0x91 then Some SLOr else if op =? 0x93 then Some SLEq else if op =? 0x94 then Some SLGt
  else if op =? 0x95 then Some SLLt else if op =? 0xa5 then Some SBreak else if op =? 0x9f then Some SCont else if op =? 0xcc then Some SBrkPt else None.
Lemma sk_of_op_eq op sk : sk_of_op op = Some sk -> op = sk_op sk.
Proof.
  unfold sk_of_op. repeat (match goal with |- (if ?c then _ else _) = _ -> _ => destruct c eqn:?E end);
    intros H; inversion H; subst; match goal with E : (_ =? _) = true |- _ => apply N.eqb_eq in E; exact E end.
Qed.
Definition targ_of (a : ast) : option targ :=
  match a with AConst op v => Some (TInt (mkDecl 0 op v)) | AStr b => Some (TStr b) | _ => None end.
Fixpoint targs_of (l : list ast) : option (list targ) :=
  match l with
  | [] => Some []
  | x :: t => match targ_of x, targs_of t with Some i, Some r => Some (i :: r) | _, _ => None end
  end.
Lemma targs_of_ast : forall l ta, targs_of l = Some ta -> l = map targ_ast ta.
Proof.
  intros l ta E. apply (omap_sound targ_of targ_ast (fun _ => true) l ta); [|exact E].
  intros a _ x Ex. split; [|reflexivity]. destruct a; try discriminate; inversion Ex; reflexivity.
Qed.

Fixpoint pel_of (a : ast) : option pel :=
  match a with
  | AConst op v => Some (PLeaf (TInt (mkDecl 0 op v)))
  | AStr b => Some (PLeaf (TStr b))
  | APackage k n es =>
      match (fix go (l : list ast) : option (list pel) :=
               match l with
               | [] => Some []
               | x :: t => match pel_of x, go t with Some i, Some r => Some (i :: r) | _, _ => None end
               end) es with
      | Some l => Some (PSub k n l)
      | None => None
      end
  | _ => None
  end.
Fixpoint pels_of (l : list ast) : option (list pel) :=
  match l with
  | [] => Some []
  | x :: t => match pel_of x, pels_of t with Some i, Some r => Some (i :: r) | _, _ => None end
  end.

Lemma pel_of_ast : forall a x, pel_of a = Some x -> a = pel_ast x.
Proof.
  fix IH 1. intros a x.
  assert (HL : forall l r, (fix go (l : list ast) : option (list pel) :=
                              match l with
                              | [] => Some []
                              | x :: t => match pel_of x, go t with Some i, Some r => Some (i :: r) | _, _ => None end
                              end) l = Some r -> l = map pel_ast r).
  { induction l as [|y t IHt]; intros r Hr.
    - inversion Hr. reflexivity.
    - destruct (pel_of y) as [i|] eqn:Ei; [|discriminate].
      match type of Hr with match ?G with _ => _ end = _ => destruct G as [r'|] eqn:Er; [|discriminate] end.
      inversion Hr; subst r. cbn [map]. rewrite <- (IH y i Ei), <- (IHt r' eq_refl). reflexivity. }
  destruct a; try discriminate; cbn [pel_of].
  - intros E; inversion E. reflexivity.
  - intros E; inversion E. reflexivity.
  - match goal with |- match ?G with _ => _ end = _ -> _ => destruct G as [l|] eqn:El; [|discriminate] end.
    intros E; inversion E. cbn [pel_ast]. rewrite <- (HL _ _ El). reflexivity.
Qed.

Lemma pels_of_ast : forall l r, pels_of l = Some r -> l = map pel_ast r.
Proof.
  intros l r E. apply (omap_sound pel_of pel_ast (fun _ => true) l r); [|exact E].
  intros a _ x Ex. split; [apply pel_of_ast; exact Ex|reflexivity].
Qed.

Fixpoint f9_item (a : ast) : option item :=
  let go := fix go (l : list ast) : option (list item) :=
              match l with
              | [] => Some []
              | x :: t => match f9_item x, go t with Some i, Some r => Some (i :: r) | _, _ => None end
              end in
  let blk (bk : bkind) (k : N) (nm : namestr) (fa : list N) (body : list ast) : option item :=
      match simple_name nm, go body with
      | Some seg, Some b => Some (IBlk bk k seg fa b)
      | _, _ => None
      end in
  match a with
  | AName nm (AConst op v) => match simple_name nm with Some seg => Some (IName (mkDecl seg op v)) | None => None end
  | AName nm (AStr b) => match simple_name nm with Some seg => Some (ILeaf LName seg [] [TStr b]) | None => None end
  | AName nm (APackage k n elems) =>
      match simple_name nm, pels_of elems with Some seg, Some l => Some (IPkg seg k n l) | _, _ => None end
  | ADevice k nm body => blk BDev k nm [] body
  | AThermal k nm body => blk BTZ k nm [] body
  | AProcessor k nm id addr len body => blk BProc k nm [id; addr; len] body
  | APowerRes k nm level order body => blk BPwr k nm [level; order] body
  | AMethod k nm fl body => blk BMeth k nm [fl] body
  | AMutex nm sync => match simple_name nm with Some seg => Some (ILeaf LMutex seg [sync] []) | None => None end
  | AEvent nm => match simple_name nm with Some seg => Some (ILeaf LEvent seg [] []) | None => None end
  | AOp op args => match sk_of_op op, targs_of args with Some sk, Some ta => Some (IStmt sk ta) | _, _ => None end
  | AOpRegion nm space (AConst op1 v1) (AConst op2 v2) =>
      match simple_name nm with Some seg => Some (ILeaf LOpReg seg [space] [TInt (mkDecl 0 op1 v1); TInt (mkDecl 0 op2 v2)]) | None => None end
  | _ => None
  end.

Fixpoint f9_items (l : list ast) : option (list item) :=
  match l with
  | [] => Some []
  | x :: t => match f9_item x, f9_items t with Some i, Some r => Some (i :: r) | _, _ => None end
  end.

Lemma f9_item_ast : forall a it, f9_item a = Some it -> a = item_ast it /\ shape_ok it = true.
Proof.
  induction a as [a IH] using ast_body_ind. intros it.
  assert (HL : forall b, omap f9_item (body_of a) = Some b ->
                         body_of a = map item_ast b /\ forallb shape_ok b = true).
  { intros b. apply omap_sound. exact IH. }
  destruct a as [ | | | | | op args | | | | | | | | k nm body | k nm body | k nm id addr len body | k nm level order body | k nm fl body | nm v | nm space off len | | | | nm sync | nm ]; try discriminate;
    cbn [f9_item body_of] in *;
    try (destruct (simple_name nm) as [seg|] eqn:En; [|discriminate]; apply simple_name_eq in En; subst nm;
         match goal with |- match ?G with _ => _ end = _ -> _ => destruct G as [b|] eqn:Eb; [|discriminate] end;
         intros E; inversion E; subst it; destruct (HL b Eb) as (-> & Hb); split; [reflexivity|];
         cbn [shape_ok bk_ws length Nat.eqb andb]; exact Hb).
  - destruct (sk_of_op op) as [sk|] eqn:Es; [|discriminate]. destruct (targs_of args) as [ta|] eqn:Et; [|discriminate].
    apply sk_of_op_eq in Es. apply targs_of_ast in Et. subst op args. intros E; inversion E. split; reflexivity.
  - destruct v; try discriminate; (destruct (simple_name nm) as [seg|] eqn:En; [|discriminate]); apply simple_name_eq in En; subst nm;
      try (destruct (pels_of elems) as [ta|] eqn:Eta; [apply pels_of_ast in Eta; subst elems|discriminate]);
      intros E; inversion E; split; reflexivity.
  - destruct off; try discriminate. destruct len; try discriminate. destruct (simple_name nm) as [seg|] eqn:En; [|discriminate]. apply simple_name_eq in En. subst nm.
    intros E; inversion E. split; reflexivity.
  - destruct (simple_name nm) as [seg|] eqn:En; [|discriminate]. apply simple_name_eq in En. subst nm.
    intros E; inversion E. split; reflexivity.
  - destruct (simple_name nm) as [seg|] eqn:En; [|discriminate]. apply simple_name_eq in En. subst nm.
    intros E; inversion E. split; reflexivity.
Qed.

Lemma f9_items_ast : forall p its, f9_items p = Some its -> p = map item_ast its /\ forallb shape_ok its = true.
Proof. intros p its. apply (omap_sound f9_item). intros a _. apply f9_item_ast. Qed.

Definition in_fragment_F9 (tables : list (list ast)) : bool :=
  match tables with
  | [p] => match f9_items p with
           | Some _ => lenN (encode_table p) <? 0x10000000
           | None => false
           end
  | _ => false
  end.

(** THE THEOREM for the fragment F9 *)
Theorem parse_encode_F9 : forall tables,
  wf_program tables = true -> in_fragment_F9 tables = true -> parse_encode_statement tables.
Proof.
  intros tables Hwf Hfr. unfold in_fragment_F9 in Hfr.
  destruct tables as [|p [|p2 rest]]; try discriminate.
  destruct (f9_items p) as [its|] eqn:Eits; [|discriminate].
  apply N.ltb_lt in Hfr.
  destruct (f9_items_ast p its Eits) as (-> & Hshape).
  apply parse_encode_items9; assumption.
Qed.
