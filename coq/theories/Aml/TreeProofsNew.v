(** C13: the object newObject returns carries the zero name, whether its slot is fresh or a reused
    slot of the free list (if a reused slot kept the name of the freed object, Find would resolve that
    name to the new, unnamed object). *)
From Coq Require Import NArith Arith List Bool Lia.
From Coq Require Import ZifyBool ZifyN ZifyNat.
From FF Require Import Lib.Word Gen.Consts_aml_tree Aml.Stream Aml.Tree Aml.TreeSpec Aml.TreeProofs Aml.TreeProofsOps
  Aml.ParserTotalTree.
Import ListNotations.
Local Open Scope N_scope.

Lemma newObject_unnamed {V} (t t' : ObjectTree V) opc th p :
  newObject t opc th = Ok (t', p) ->
  exists o, get t' p = Some o /\ o_name o = name_zero /\ o_opcode o = opc /\ o_tableHandle o = th /\ o_value o = None /\
            o_parent o = InvalidIndex /\ o_prev o = InvalidIndex /\ o_next o = InvalidIndex /\
            o_first o = InvalidIndex /\ o_last o = InvalidIndex.
Proof.
  unfold newObject. intros H. apply bind_ok in H. destruct H as ([t1 p1] & _ & H).
  apply bind_ok in H. destruct H as (info & _ & H). apply bind_ok in H. destruct H as (t2 & Hw & H). inversion H; subst t2 p1. clear H.
  destruct (wr_inv _ _ _ _ Hw) as (-> & o & Ho). rewrite get_tset, N.eqb_refl, Ho. cbn [option_map]. eexists. split; [reflexivity|].
  cbn. repeat split; reflexivity.
Qed.

(** the history of the repaired defect: a named object is created, freed, its slot reused by newObject:
    the new object does not answer to the old name *)
Lemma reuse_forgets_name {V} (t t1 t2 t3 : ObjectTree V) opc opc2 th nm p q :
  newNamedObject t opc th nm = Ok (t1, p) -> free t1 p = Ok t2 -> newObject t2 opc2 th = Ok (t3, q) ->
  exists o, get t3 q = Some o /\ o_name o = name_zero.
Proof.
  intros _ _ H. destruct (newObject_unnamed _ _ _ _ _ H) as (o & Ho & Hn & _). eauto.
Qed.
