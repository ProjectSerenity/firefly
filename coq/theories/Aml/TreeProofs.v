(** C13 proofs, part 1: basic facts about the pool, the ghost forest and the [chain] predicate. *)
From Coq Require Import NArith ZArith List Bool Lia.
From Coq Require Import ZifyBool ZifyN ZifyNat.
From FF Require Import Lib.Word Gen.Consts_aml_tree Aml.Stream Aml.Tree Aml.TreeSpec.
Import ListNotations.
Local Open Scope N_scope.

(** the model hard-wires 4-byte names (a [Name] is a 4-tuple) *)
Lemma amlNameLen_is_4 : tree_amlNameLen = 4.
Proof. reflexivity. Qed.

Lemma Inv_val : InvalidIndex = 0xffffffff.
Proof. reflexivity. Qed.

Lemma Inv_lt_two32 : InvalidIndex < two32.
Proof. rewrite Inv_val. unfold two32. lia. Qed.

Global Opaque InvalidIndex opFreed.

(** ---- lists ---- *)
Lemma list_upd_length {A} (l : list A) n f : length (list_upd l n f) = length l.
Proof. revert n; induction l as [|x l IH]; intros [|n]; simpl; auto. Qed.

Lemma nth_error_list_upd {A} (l : list A) n m f :
  nth_error (list_upd l n f) m = if Nat.eqb m n then option_map f (nth_error l m) else nth_error l m.
Proof.
  revert n m; induction l as [|x l IH]; intros [|n] [|m]; simpl; auto.
  - destruct (Nat.eqb m n); reflexivity.
Qed.

Lemma list_set_length {A} (l : list A) n v : length (list_set l n v) = length l.
Proof. revert n; induction l as [|x l IH]; intros [|n]; simpl; auto. Qed.

Lemma nth_list_set {A} (l : list A) n m v d :
  (n < length l)%nat -> nth m (list_set l n v) d = if Nat.eqb m n then v else nth m l d.
Proof.
  revert n m; induction l as [|x l IH]; intros [|n] [|m] H; simpl in *; try lia; auto.
  apply IH. lia.
Qed.

Lemma nth_list_set_oob {A} (l : list A) n v : (length l <= n)%nat -> list_set l n v = l.
Proof.
  revert n; induction l as [|x l IH]; intros [|n] H; simpl in *; try lia; auto.
  f_equal. apply IH. lia.
Qed.

(** ---- the pool ---- *)
Definition tset {V} (t : ObjectTree V) (p : N) (f : Object V -> Object V) : ObjectTree V :=
  mkTree (list_upd (t_pool t) (N.to_nat p) f) (t_free t).

Lemma get_tset {V} (t : ObjectTree V) p f q :
  get (tset t p f) q = if q =? p then option_map f (get t q) else get t q.
Proof.
  unfold get, tset; simpl. rewrite nth_error_list_upd.
  destruct (N.eqb_spec q p) as [->|Hne].
  - rewrite Nat.eqb_refl. reflexivity.
  - destruct (Nat.eqb_spec (N.to_nat q) (N.to_nat p)) as [E|E]; [|reflexivity].
    apply N2Nat.inj in E. contradiction.
Qed.

Lemma tset_len {V} (t : ObjectTree V) p f : length (t_pool (tset t p f)) = length (t_pool t).
Proof. unfold tset; simpl. apply list_upd_length. Qed.

Lemma tset_free {V} (t : ObjectTree V) p f : t_free (tset t p f) = t_free t.
Proof. reflexivity. Qed.

Lemma deref_get {V} (t : ObjectTree V) p : deref t p = match get t p with Some o => Ok o | None => Panic end.
Proof. reflexivity. Qed.

Lemma rd_ok {V} (t : ObjectTree V) p f o : get t p = Some o -> rd t p f = Ok (f o).
Proof. intros H. unfold rd. rewrite deref_get, H. reflexivity. Qed.

Lemma wr_ok {V} (t : ObjectTree V) p f o : get t p = Some o -> wr t p f = Ok (tset t p f).
Proof. intros H. unfold wr. rewrite deref_get, H. reflexivity. Qed.

Lemma get_lt {V} (t : ObjectTree V) i o : get t i = Some o -> i < N.of_nat (length (t_pool t)).
Proof.
  unfold get. intros H. assert (N.to_nat i < length (t_pool t))%nat by (apply nth_error_Some; congruence). lia.
Qed.

Lemma get_some {V} (t : ObjectTree V) i : i < N.of_nat (length (t_pool t)) -> exists o, get t i = Some o.
Proof.
  intros H. unfold get. destruct (nth_error (t_pool t) (N.to_nat i)) eqn:E; eauto.
  apply nth_error_None in E. lia.
Qed.

Lemma pool_len_eq {V} (t : ObjectTree V) :
  N.of_nat (length (t_pool t)) <= InvalidIndex -> pool_len t = N.of_nat (length (t_pool t)).
Proof. intros H. unfold pool_len. apply w32_small. pose proof Inv_lt_two32. lia. Qed.

Lemma ObjectAt_live {V} (t : ObjectTree V) i o :
  N.of_nat (length (t_pool t)) <= InvalidIndex ->
  get t i = Some o -> o_opcode o <> opFreed -> ObjectAt t i = Some i.
Proof.
  intros Hb Hg Hl. unfold ObjectAt. rewrite (pool_len_eq t Hb).
  pose proof (get_lt _ _ _ Hg) as Hlt.
  destruct (N.leb_spec (N.of_nat (length (t_pool t))) i); [lia|].
  unfold get in Hg. rewrite Hg. destruct (N.eqb_spec (o_opcode o) opFreed); congruence.
Qed.

Lemma ObjectAt_deref_live {V} (t : ObjectTree V) i o :
  N.of_nat (length (t_pool t)) <= InvalidIndex ->
  get t i = Some o -> o_opcode o <> opFreed -> ObjectAt_deref t i = Ok i.
Proof. intros. unfold ObjectAt_deref. erewrite ObjectAt_live; eauto. Qed.

Lemma ObjectAt_some {V} (t : ObjectTree V) i p :
  ObjectAt t i = Some p -> p = i /\ exists o, get t i = Some o /\ o_opcode o <> opFreed.
Proof.
  unfold ObjectAt. destruct (pool_len t <=? i); [discriminate|].
  fold (get t i). destruct (get t i) as [o|] eqn:E; [|discriminate].
  destruct (N.eqb_spec (o_opcode o) opFreed); [discriminate|].
  intros H; inversion H; subst. eauto.
Qed.

Lemma get_not_Inv {V} (t : ObjectTree V) i o :
  N.of_nat (length (t_pool t)) <= InvalidIndex -> get t i = Some o -> i <> InvalidIndex.
Proof. intros Hb Hg. pose proof (get_lt _ _ _ Hg). lia. Qed.

(** ---- the ghost ---- *)
Lemma kids_oob g i : N.of_nat (length (g_kids g)) <= i -> kids g i = [].
Proof. intros H. unfold kids. apply nth_overflow. lia. Qed.

Lemma kids_set_kids g i l j :
  i < N.of_nat (length (g_kids g)) ->
  kids (set_kids g i l) j = if j =? i then l else kids g j.
Proof.
  intros H. unfold kids, set_kids; simpl. rewrite nth_list_set by lia.
  destruct (N.eqb_spec j i) as [->|Hne]; [rewrite Nat.eqb_refl; reflexivity|].
  destruct (Nat.eqb_spec (N.to_nat j) (N.to_nat i)) as [E|E]; [|reflexivity].
  apply N2Nat.inj in E. contradiction.
Qed.

Lemma set_kids_len g i l : length (g_kids (set_kids g i l)) = length (g_kids g).
Proof. unfold set_kids; simpl. apply list_set_length. Qed.

Lemma set_kids_free g i l : g_free (set_kids g i l) = g_free g.
Proof. reflexivity. Qed.

Lemma In_kids_lt g p c : In c (kids g p) -> p < N.of_nat (length (g_kids g)).
Proof.
  intros H. destruct (N.ltb_spec p (N.of_nat (length (g_kids g)))); auto.
  rewrite kids_oob in H by lia. contradiction.
Qed.

(** ---- chains ---- *)
Lemma last_cons_irrel {A} (l : list A) x d d' : last (x :: l) d = last (x :: l) d'.
Proof. revert x; induction l as [|y l IH]; intros x; [reflexivity|]. change (last (y :: l) d = last (y :: l) d'). apply IH. Qed.

Lemma chain_app {V} (t : ObjectTree V) p prev l1 l2 nxt :
  chain t p prev (l1 ++ l2) nxt <-> chain t p prev l1 (hd nxt l2) /\ chain t p (last l1 prev) l2 nxt.
Proof.
  revert prev; induction l1 as [|c l1 IH]; intros prev; simpl.
  - tauto.
  - rewrite IH. destruct l1 as [|c' l1']; [simpl; tauto|].
    rewrite (last_cons_irrel l1' c' c prev).
    change (last (c :: c' :: l1') prev) with (last (c' :: l1') prev). simpl hd. tauto.
Qed.

Definition same_links {V} (o o' : Object V) : Prop :=
  o_opcode o' = o_opcode o /\ o_parent o' = o_parent o /\ o_prev o' = o_prev o /\ o_next o' = o_next o.

Lemma node_frame {V} (t t' : ObjectTree V) c p pv nx :
  (forall o, get t c = Some o -> exists o', get t' c = Some o' /\ same_links o o') ->
  node t c p pv nx -> node t' c p pv nx.
Proof.
  intros H (o & Hg & Hl & Hp & Hpv & Hn). destruct (H o Hg) as (o' & Hg' & E1 & E2 & E3 & E4).
  exists o'. repeat split; congruence.
Qed.

Lemma chain_frame {V} (t t' : ObjectTree V) p prev l nxt :
  (forall c o, In c l -> get t c = Some o -> exists o', get t' c = Some o' /\ same_links o o') ->
  chain t p prev l nxt -> chain t' p prev l nxt.
Proof.
  revert prev; induction l as [|c l IH]; intros prev H; simpl; auto.
  intros [Hn Hc]. split.
  - eapply node_frame; eauto. intros o Ho. apply (H c o); simpl; auto.
  - apply IH; auto. intros c' o' Hin. apply H. simpl; auto.
Qed.

Lemma chain_In {V} (t : ObjectTree V) p prev l nxt c :
  chain t p prev l nxt -> In c l -> exists pv nx, node t c p pv nx.
Proof.
  revert prev; induction l as [|x l IH]; intros prev; simpl; [tauto|].
  intros [Hn Hc] [->|Hin]; eauto.
Qed.

Lemma chain_In_parent {V} (t : ObjectTree V) p prev l nxt c :
  chain t p prev l nxt -> In c l -> exists o, get t c = Some o /\ o_opcode o <> opFreed /\ o_parent o = p.
Proof.
  intros Hc Hin. destruct (chain_In _ _ _ _ _ _ Hc Hin) as (pv & nx & o & H1 & H2 & H3 & _). eauto.
Qed.

(** the first element has [prev] behind it, the last has [nxt] in front *)
Lemma chain_hd {V} (t : ObjectTree V) p prev c l nxt :
  chain t p prev (c :: l) nxt -> node t c p prev (hd nxt l).
Proof. simpl. tauto. Qed.

Lemma chain_last {V} (t : ObjectTree V) p prev l z nxt :
  chain t p prev (l ++ [z]) nxt -> node t z p (last l prev) nxt.
Proof. rewrite chain_app. simpl. tauto. Qed.

Lemma hd_app_one {A} (l : list A) z d : hd d (l ++ [z]) = hd z l.
Proof. destruct l; reflexivity. Qed.

Lemma list_last_case {A} (l : list A) : l = [] \/ exists l' z, l = l' ++ [z].
Proof.
  destruct l as [|x l]; [left; reflexivity|right].
  destruct (@exists_last _ (x :: l)) as (l' & z & E); [discriminate|eauto].
Qed.

(** ---- consequences of R ---- *)
Lemma fchain_In {V} (t : ObjectTree V) h l x :
  fchain t h l -> In x l -> exists o, get t x = Some o /\ o_opcode o = opFreed.
Proof.
  revert h; induction l as [|y l IH]; intros h; simpl; [tauto|].
  intros (-> & o & Hg & Hf & Hc) [->|Hin]; eauto.
Qed.

Lemma fchain_frame {V} (t t' : ObjectTree V) h l :
  (forall x, In x l -> get t' x = get t x) -> fchain t h l -> fchain t' h l.
Proof.
  revert h; induction l as [|y l IH]; intros h H; simpl; auto.
  intros (-> & o & Hg & Hf & Hc). split; auto. exists o. rewrite H by (simpl; auto).
  repeat split; auto. apply IH; auto. intros x Hx. apply H; simpl; auto.
Qed.

Lemma Depth_fun {V} (t : ObjectTree V) i k : Depth t i k -> forall k', Depth t i k' -> k = k'.
Proof.
  induction 1 as [i o Hg Hl Hp | i o k Hg Hl Hp Hd IH]; intros k' H'; inversion H'; subst; try congruence.
  - f_equal. apply IH. assert (o0 = o) by congruence. subst. assumption.
Qed.

Section RFacts.
Context {V : Type} (t : ObjectTree V) (g : ghost) (HR : R t g).

Lemma R_live_glive i : live t i <-> glive g i.
Proof.
  split.
  - intros (o & Hg & Hl). split.
    + rewrite (R_len _ _ HR). eapply get_lt; eauto.
    + intros Hin. destruct (fchain_In _ _ _ _ (proj1 (R_flist _ _ HR)) Hin) as (o' & Hg' & Hf). congruence.
  - intros [Hlt Hnin]. rewrite (R_len _ _ HR) in Hlt. destruct (get_some _ _ Hlt) as (o & Hg).
    exists o. split; auto. intros Hf. apply Hnin. eapply R_freed; eauto.
Qed.

Lemma R_In_kids p c :
  In c (kids g p) ->
  (exists po, get t p = Some po /\ o_opcode po <> opFreed) /\
  (exists co, get t c = Some co /\ o_opcode co <> opFreed /\ o_parent co = p).
Proof.
  intros Hin. pose proof (In_kids_lt _ _ _ Hin) as Hlt. rewrite (R_len _ _ HR) in Hlt.
  destruct (get_some _ _ Hlt) as (po & Hp).
  assert (Hl : o_opcode po <> opFreed).
  { intros Hf. destruct (R_freed _ _ HR _ _ Hp Hf) as [E _]. rewrite E in Hin. contradiction. }
  split; [eauto|].
  destruct (R_kids _ _ HR _ _ Hp Hl) as (_ & _ & Hc & _).
  eapply chain_In_parent; eauto.
Qed.

Lemma R_parent_unique p q c : In c (kids g p) -> In c (kids g q) -> p = q.
Proof.
  intros H1 H2. destruct (R_In_kids _ _ H1) as (_ & o1 & G1 & _ & P1).
  destruct (R_In_kids _ _ H2) as (_ & o2 & G2 & _ & P2). congruence.
Qed.

Lemma R_pos_not_Inv i o : get t i = Some o -> i <> InvalidIndex.
Proof. intros. eapply get_not_Inv; eauto. apply (R_bound _ _ HR). Qed.

Lemma R_eqb_Inv i o : get t i = Some o -> (i =? InvalidIndex) = false.
Proof. intros H. apply N.eqb_neq. eapply R_pos_not_Inv; eauto. Qed.

Lemma R_ObjectAt_deref i o : get t i = Some o -> o_opcode o <> opFreed -> ObjectAt_deref t i = Ok i.
Proof. intros. eapply ObjectAt_deref_live; eauto. apply (R_bound _ _ HR). Qed.

Lemma R_root_not_child a ao p :
  get t a = Some ao -> o_parent ao = InvalidIndex -> ~ In a (kids g p).
Proof.
  intros Ha Hp Hin. destruct (R_In_kids _ _ Hin) as ((po & Hpo & _) & co & Hc & _ & Hpar).
  assert (co = ao) by congruence. subst. apply (R_pos_not_Inv _ _ Hpo). congruence.
Qed.

Lemma R_child_not_root c p co :
  In c (kids g p) -> get t c = Some co -> o_parent co = p /\ p <> InvalidIndex.
Proof.
  intros Hin Hc. destruct (R_In_kids _ _ Hin) as ((po & Hpo & _) & co' & Hc' & _ & Hpar).
  assert (co' = co) by congruence. subst. split; auto. eapply R_pos_not_Inv; eauto.
Qed.

Lemma R_groot a ao : get t a = Some ao -> o_opcode ao <> opFreed -> (groot g a <-> o_parent ao = InvalidIndex).
Proof.
  intros Ha Hl. split.
  - intros Hr. pose proof (R_up _ _ HR _ _ Ha Hl) as H.
    destruct (N.eqb_spec (o_parent ao) InvalidIndex); auto. exfalso. eapply Hr; eauto.
  - intros Hp p. eapply R_root_not_child; eauto.
Qed.

Lemma R_child_neq_parent p c : In c (kids g p) -> c <> p.
Proof.
  intros Hin E. subst c. destruct (R_In_kids _ _ Hin) as ((po & Hpo & Hl) & co & Hc & _ & Hpar).
  assert (co = po) by congruence. subst co.
  destruct (R_acyc _ _ HR _ _ Hpo Hl) as (k & Hd).
  assert (Hd' : Depth t p (S k)).
  { eapply Depth_step; eauto. rewrite Hpar. eapply R_pos_not_Inv; eauto. rewrite Hpar. exact Hd. }
  pose proof (Depth_fun _ _ _ Hd _ Hd'). lia.
Qed.

(** a live object's parent chain stays among live objects *)
Lemma R_parent_live i o : get t i = Some o -> o_opcode o <> opFreed -> o_parent o <> InvalidIndex ->
  In i (kids g (o_parent o)) /\ exists po, get t (o_parent o) = Some po /\ o_opcode po <> opFreed.
Proof.
  intros Hg Hl Hp. pose proof (R_up _ _ HR _ _ Hg Hl) as H.
  destruct (N.eqb_spec (o_parent o) InvalidIndex); [contradiction|].
  split; auto. apply (R_In_kids _ _ H).
Qed.
End RFacts.
