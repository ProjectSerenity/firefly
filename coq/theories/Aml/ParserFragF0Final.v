(** C11 (fragment F0): the recogniser [in_fragment_F0] of flat lists of [Name(SEG, integer constant)] declarations and its
    soundness [f0_items] ([parse_encode_F0] is in ParserFragF3Final.v); and what the recognisers of all fragments share: [omap],
    the induction over block bodies and package elements ([ast_body_ind]), [sumlen_eq], [pkglen_of_k], [seg_ok_parts].

    The fragment: ONE table whose items are all [AName nm (AConst op v)] with [nm] a single name segment without
    root / parent prefix and not written as a MultiNamePath, [op] one of Zero, One, Ones, BytePrefix, WordPrefix,
    DWordPrefix, QWordPrefix; any number of declarations (names need not be distinct); the encoded table is
    smaller than 256 MiB.  Productions inside the fragment: DefName, NameString = NameSeg, DataRefObject =
    ConstObj | ByteConst | WordConst | DWordConst | QWordConst. *)
From Coq Require Import NArith List Bool.
From FF Require Import Aml.Grammar Aml.WfProgram Aml.LexRoundtrip Aml.ParserFragFirst Aml.ParserFragF0.
Import ListNotations.
Local Open Scope N_scope.

(** the declarations of the fragment *)
Definition f0_item (a : ast) : option decl :=
  match a with
  | AName nm (AConst op v) =>
      match n_segs nm with
      | [seg] => if negb (n_root nm) && (n_carets nm =? 0) && negb (n_multi nm) then Some (mkDecl seg op v) else None
      | _ => None
      end
  | _ => None
  end.

Definition is_f0_item (a : ast) : bool := match f0_item a with Some _ => true | None => false end.

Definition in_fragment_F0 (tables : list (list ast)) : bool :=
  match tables with
  | [p] => forallb is_f0_item p && (lenN (encode_table p) <? 0x10000000)
  | _ => false
  end.

Definition decl_ast (d : decl) : ast := AName (mkName false 0 false [d_seg d]) (AConst (d_op d) (d_v d)).

Lemma f0_item_ast a d : f0_item a = Some d -> a = decl_ast d.
Proof.
  destruct a as [ | | | | | | | | | | | | | | | | | | nm a | | | | | | ]; try discriminate. cbn [f0_item]. destruct a; try discriminate.
  destruct nm as [root carets multi segs]. cbn [n_segs n_root n_carets n_multi].
  destruct segs as [|seg [|s2 segs]]; try discriminate.
  destruct root; cbn [negb andb]; try discriminate.
  destruct (N.eqb_spec carets 0) as [->|]; cbn [andb]; try discriminate.
  destruct multi; cbn [negb]; try discriminate.
  intros E; inversion E. reflexivity.
Qed.

Lemma f0_items p : forallb is_f0_item p = true -> exists ds, p = map decl_ast ds.
Proof.
  induction p as [|a p IH]; intros Hf; [exists []; reflexivity|].
  cbn [forallb] in Hf. apply andb_prop in Hf. destruct Hf as [Ha Hp]. destruct (IH Hp) as (ds & ->).
  unfold is_f0_item in Ha. destruct (f0_item a) as [d|] eqn:E; [|discriminate].
  exists (d :: ds). cbn [map]. rewrite (f0_item_ast a d E). reflexivity.
Qed.

Lemma encode_decl d : encode (decl_ast d) = enc_decl d.
Proof.
  unfold decl_ast, enc_decl, enc_const. cbn [encode]. change (mkName false 0 false [d_seg d]) with (seg_name (d_seg d)).
  rewrite enc_seg_name. reflexivity.
Qed.

(** ---- tools for the recognisers of the larger fragments: [omap f l], every element of [l] is recognised by [f];
    induction over the TermList of a block-like declaration or the elements of a package ---- *)
Section Omap.
Context {A B : Type} (f : A -> option B).
Fixpoint omap (l : list A) : option (list B) :=
  match l with
  | [] => Some []
  | x :: t => match f x, omap t with Some i, Some r => Some (i :: r) | _, _ => None end
  end.

Lemma omap_sound (g : B -> A) (p : B -> bool) : forall l r,
  (forall a, In a l -> forall b, f a = Some b -> a = g b /\ p b = true) -> omap l = Some r -> l = map g r /\ forallb p r = true.
Proof.
  induction l as [|x t IH]; intros r Hf Hr; cbn [omap] in Hr.
  - inversion Hr. split; reflexivity.
  - destruct (f x) as [i|] eqn:Ei; [|discriminate]. destruct (omap t) as [r'|]; [|discriminate]. inversion Hr; subst r.
    destruct (Hf x (or_introl eq_refl) i Ei) as (-> & Hi). destruct (IH r' (fun a Ha => Hf a (or_intror Ha)) eq_refl) as (-> & Hr').
    cbn [map forallb]. rewrite Hi, Hr'. split; reflexivity.
Qed.
End Omap.

Definition body_of (a : ast) : list ast :=
  match a with
  | ADevice _ _ b | AThermal _ _ b | AProcessor _ _ _ _ _ b | APowerRes _ _ _ _ b | AMethod _ _ _ b => b
  | APackage _ _ es => es
  | _ => []
  end.

Lemma ast_body_ind (P : ast -> Prop) : (forall a, (forall x, In x (body_of a) -> P x) -> P a) -> forall a, P a.
Proof.
  intros HP. fix IH 1. intros a. apply HP.
  assert (HL : forall l x, In x l -> P x).
  { induction l as [|y t IHt]; intros x Hx; [destruct Hx|]. destruct Hx as [<-|Hx]; [apply IH|apply IHt; exact Hx]. }
  destruct a; cbn [body_of]; try (intros x []); apply HL.
Qed.

(** ---- what [wf_ast] says about lengths and names ---- *)
Lemma sumlen_eq : forall l, (fix sumlen (l : list ast) : N := match l with [] => 0 | x :: r => lenN (encode x) + sumlen r end) l = lenN (flat_map encode l).
Proof. induction l as [|x t IH]; [reflexivity|]. cbn [flat_map]. rewrite lenN_app, IH. reflexivity. Qed.

Lemma pkglen_of_k k A B : k_ok k A = true -> B = A -> kw_ok k (k + B) = true.
Proof. intros Hk ->. exact Hk. Qed.

Lemma seg_ok_parts seg : name_ok (seg_name seg) = true -> lead_okb (seg_lead seg) = true /\ (seg <? 0x100000000) = true.
Proof.
  intros Hn. unfold name_ok in Hn. cbn [seg_name n_segs forallb] in Hn. apply andb_prop in Hn. destruct Hn as [_ Hn].
  apply andb_prop in Hn. destruct Hn as [Hseg _].
  unfold seg_ok, seg_bytes in Hseg. repeat (apply andb_prop in Hseg; destruct Hseg as [Hseg ?]). split; assumption.
Qed.
