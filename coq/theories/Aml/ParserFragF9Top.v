(** C11 (fragments F1 .. F9): the first two passes of ParseAML on a table of items over the default scopes leave a pool
    described by the tree [root_tree] (default scopes, then [lay2] of the program); the kinds of nodes of that tree and
    of the final one, with the local conditions the later passes ask of them. *)
From Coq Require Import NArith ZArith Arith List Bool Lia.
From Coq Require Import ZifyBool ZifyN ZifyNat.
From FF Require Import Lib.Word Gen.Consts_device_acpi_aml Gen.Consts_aml_tree Aml.Stream Aml.Lex Aml.LexProofs
  Aml.Tree Aml.TreeSpec Aml.TreeProofs Aml.TreeProofsOps Aml.TreeProofsFind Aml.Parser Aml.Grammar Aml.LexRoundtrip
  Aml.ParserTotalTree Aml.ParserTotalBase
  Aml.ParserFragBase Aml.ParserFragFirst Aml.ParserFragF0 Aml.ParserFragF0Shape Aml.ParserFragConn Aml.ParserFragF0Conn Aml.ParserFragWalk
  Aml.ParserFragF0Top Aml.ParserFragRose Aml.ParserFragDev Aml.ParserFragArgs Aml.ParserFragF9 Aml.ParserFragF9First Aml.ParserFragF9Conn.
Import ListNotations.
Local Open Scope N_scope.

(** ---- sizes against the length of the encoding ---- *)
Lemma len_enc_fx l : (length l <= length (enc_fx l))%nat.
Proof. induction l as [|[w v] r IH]; [cbn; lia|]. cbn [enc_fx length]. rewrite app_length. pose proof (lenN_fw_enc w v) as E. unfold lenN, fw_len in E. destruct w; cbn [fw_n] in E; lia. Qed.

Lemma len_enc_ta ta : (length ta <= length (enc_ta ta))%nat.
Proof.
  induction ta as [|d r IH]; [cbn; lia|]. change (enc_ta (d :: r)) with (enc_targ d ++ enc_ta r). rewrite app_length.
  destruct d as [d|b]; cbn [enc_targ]; [unfold enc_const; rewrite app_length; destruct (enc_op_nonempty (d_op d)) as (x & l & E); rewrite E|]; cbn [length]; lia.
Qed.

Lemma enc_pels_len : forall es, (pels_sz es <= length (enc_pels es))%nat /\ (pels_cnt es <= length (enc_pels es))%nat.
Proof.
  induction es as [|a r IH|k n es r IHe IH] using pels_ind; [cbn; lia| |]; rewrite pels_sz_cons, pels_cnt_cons, enc_pels_cons, app_length.
  - cbn [pel_sz pel_cnt enc_pel]. pose proof (len_enc_ta [a]) as Ha. unfold enc_ta in Ha. cbn [flat_map length] in Ha. rewrite app_nil_r in Ha. lia.
  - rewrite pel_sz_sub, pel_cnt_sub, enc_pel_sub, !app_length. cbn [length].
    assert (Hk : (1 <= length (enc_pkglen k (k + lenN ([n] ++ enc_pels es))))%nat).
    { unfold enc_pkglen. destruct (k =? 1); cbn [length]; lia. }
    lia.
Qed.

Lemma enc_item_len it : (cfuel_item it <= 3 * length (enc_item it))%nat /\ (isz it <= length (enc_item it))%nat /\ (icnt it <= length (enc_item it))%nat.
Proof.
  revert it. fix IH 1. intros [d|bk k seg fa body|lk seg fa ta|seg k n elems|sk ta].
  5:{ cbn [cfuel_item]. rewrite isz_stmt, icnt_stmt, enc_stmt, app_length.
      destruct (enc_op_nonempty (sk_op sk)) as (x0 & l0 & E). rewrite E. cbn [length]. pose proof (len_enc_ta ta). lia. }
  - cbn [cfuel_item isz icnt enc_item]. unfold enc_decl, enc_const. cbn [length]. rewrite !app_length. cbn [seg_bytes length].
    destruct (enc_op_nonempty (d_op d)) as (x & l & E). rewrite E. cbn [length]. lia.
  - rewrite cfuel_blk, isz_blk, icnt_blk, enc_blk. rewrite !app_length. cbn [seg_bytes length].
    destruct (enc_op_nonempty (bk_op bk)) as (x0 & l0 & E). rewrite E. cbn [length].
    assert (H : (cfuel body <= 3 * length (enc_items body))%nat /\ (iszs body <= length (enc_items body))%nat /\ (icnts body <= length (enc_items body))%nat).
    { induction body as [|x t IHt]; [cbn; lia|]. destruct (IH x) as (A & B & C). destruct IHt as (A' & B' & C').
      rewrite cfuel_cons, iszs_cons, icnts_cons, enc_items_cons, app_length. lia. }
    assert (Hk : (1 <= length (enc_pkglen k (k + lenN (seg_bytes seg ++ enc_fx (bfx bk fa) ++ enc_items body))))%nat).
    { unfold enc_pkglen. destruct (k =? 1); cbn [length]; lia. }
    pose proof (len_enc_fx (bfx bk fa)). lia.
  - rewrite cfuel_leaf, isz_leaf, icnt_leaf, enc_leaf. rewrite !app_length. cbn [seg_bytes length].
    destruct (enc_op_nonempty (lk_op lk)) as (x0 & l0 & E). rewrite E. cbn [length].
    pose proof (len_enc_fx (lfx lk fa)). pose proof (len_enc_ta ta). lia.
  - rewrite cfuel_pkg, isz_pkg, enc_pkg_item. cbn [icnt length]. rewrite !app_length. cbn [seg_bytes length].
    assert (Hk : (1 <= length (enc_pkglen k (k + lenN ([n] ++ enc_pels elems))))%nat).
    { unfold enc_pkglen. destruct (k =? 1); cbn [length]; lia. }
    pose proof (enc_pels_len elems). lia.
Qed.

Lemma enc_items_len l : (cfuel l <= 3 * length (enc_items l))%nat /\ (iszs l <= length (enc_items l))%nat /\ (icnts l <= length (enc_items l))%nat.
Proof.
  induction l as [|x t IHt]; [cbn; lia|]. destruct (enc_item_len x) as (A & B & C). destruct IHt as (A' & B' & C').
  rewrite cfuel_cons, iszs_cons, icnts_cons, enc_items_cons, app_length. lia.
Qed.

(** the bytes of the encoding *)
Lemma enc_pkglen_bytes k v : pkglen_admissible k v -> Forall (fun b => b < 256) (enc_pkglen k v).
Proof.
  intros [(-> & Hv)|[(-> & Hv)|[(-> & Hv)|(-> & Hv)]]]; unfold enc_pkglen.
  - cbn. constructor; [lia|constructor].
  - change (2 =? 1) with false. cbv iota. rewrite lead_byte by lia. constructor; [pose proof (N.mod_lt v 16); lia|apply gle_bytes_lt].
  - change (3 =? 1) with false. cbv iota. rewrite lead_byte by lia. constructor; [pose proof (N.mod_lt v 16); lia|apply gle_bytes_lt].
  - change (4 =? 1) with false. cbv iota. rewrite lead_byte by lia. constructor; [pose proof (N.mod_lt v 16); lia|apply gle_bytes_lt].
Qed.

Lemma seg_bytes_lt seg : Forall (fun b => b < 256) (seg_bytes seg).
Proof. unfold seg_bytes. repeat (constructor; [apply land255_lt|]). constructor. Qed.

Lemma enc_fx_bytes : forall l, fx_okb l = true -> Forall (fun b => b < 256) (enc_fx l).
Proof.
  induction l as [|[w v] r IH]; intros Hok; [constructor|]. cbn [fx_okb forallb] in Hok. apply andb_prop in Hok. destruct Hok as [Hv Hok].
  apply N.ltb_lt in Hv. cbn [enc_fx]. apply Forall_app. split; [|apply IH; exact Hok].
  destruct w; cbn [fw_enc]; [constructor; [exact Hv|constructor]|apply gle_bytes_lt|apply gle_bytes_lt].
Qed.

Lemma enc_ta_bytes : forall ta, forallb targ_okb ta = true -> Forall (fun b => b < 256) (enc_ta ta).
Proof.
  induction ta as [|d r IH]; intros Hok; [constructor|]. cbn [forallb] in Hok. apply andb_prop in Hok. destruct Hok as [Hd Hok].
  change (enc_ta (d :: r)) with (enc_targ d ++ enc_ta r). apply Forall_app. split; [|apply IH; exact Hok].
  destruct d as [d|b]; cbn [targ_okb enc_targ] in *.
  - unfold cst_okb in Hd. apply andb_prop in Hd. destruct Hd as [Hc Hv].
    unfold enc_const. apply Forall_app. split; [|apply gle_bytes_lt].
    destruct (is_constb_cases _ Hc) as [E|[E|[E|[E|[E|[E|E]]]]]]; rewrite E; repeat constructor.
  - constructor; [reflexivity|]. apply Forall_app. split; [|repeat constructor].
    unfold str_okb in Hd. rewrite forallb_forall in Hd. apply Forall_forall. intros c Hc. specialize (Hd c Hc).
    apply andb_prop in Hd. destruct Hd as [_ B]. apply N.leb_le in B. lia.
Qed.

Lemma enc_pels_bytes : forall es, forallb pel_okb es = true -> Forall (fun b => b < 256) (enc_pels es).
Proof.
  induction es as [|a r IH|k n es r IHe IH] using pels_ind; intros Hok; [constructor| |];
    cbn [forallb] in Hok; apply andb_prop in Hok; destruct Hok as [Hd Hok]; rewrite enc_pels_cons; (apply Forall_app; split; [|apply IH; exact Hok]).
  - cbn [pel_okb enc_pel] in *. pose proof (enc_ta_bytes [a]) as Ha. unfold enc_ta in Ha. cbn [flat_map forallb] in Ha. rewrite app_nil_r, andb_true_r in Ha. apply Ha. exact Hd.
  - rewrite pel_okb_sub in Hd. apply andb_prop in Hd. destruct Hd as [Hx Hes]. apply andb_prop in Hx. destruct Hx as [Hn Hpk]. apply pkglen_okb_adm in Hpk. apply N.ltb_lt in Hn.
    rewrite enc_pel_sub. apply Forall_app. split; [repeat constructor|]. apply Forall_app. split; [apply enc_pkglen_bytes; exact Hpk|].
    apply Forall_app. split; [constructor; [exact Hn|constructor]|apply IHe; exact Hes].
Qed.

Lemma enc_items_bytes : forall l, forallb item_okb l = true -> Forall (fun b => b < 256) (enc_items l).
Proof.
  induction l as [|d rest IH|bk k seg fa body rest IHb IH|lk seg fa ta rest IH|seg k n elems rest IH|sk ta rest IH] using items_ind; intros Hok; [constructor| | | | |].
  5:{ apply forallb_item_cons in Hok. destruct Hok as [Hd Hok]. cbn [item_okb] in Hd. apply andb_prop in Hd. destruct Hd as [_ Hta].
      rewrite enc_items_cons, enc_stmt. apply Forall_app. split; [|apply IH; exact Hok].
      apply Forall_app. split; [destruct sk; repeat constructor|apply enc_ta_bytes; exact Hta]. }
  - apply forallb_item_cons in Hok. destruct Hok as [Hd Hok]. cbn [item_okb] in Hd. apply andb_prop in Hd. destruct Hd as [Hd _].
    rewrite enc_items_cons. apply Forall_app. split; [apply enc_decl_bytes; exact Hd|apply IH; exact Hok].
  - apply forallb_item_cons in Hok. destruct Hok as [Hd Hok]. cbn [item_okb] in Hd.
    apply andb_prop in Hd. destruct Hd as [Hx Hbody]. apply andb_prop in Hx. destruct Hx as [Hx Hpk]. apply pkglen_okb_adm in Hpk.
    apply andb_prop in Hx. destruct Hx as [_ Hfx].
    rewrite enc_items_cons, enc_blk. apply Forall_app. split; [|apply IH; exact Hok].
    apply Forall_app. split; [destruct bk; repeat constructor|]. apply Forall_app. split; [apply enc_pkglen_bytes; exact Hpk|].
    apply Forall_app. split; [apply seg_bytes_lt|]. apply Forall_app. split; [apply enc_fx_bytes; exact Hfx|apply IHb; exact Hbody].
  - apply forallb_item_cons in Hok. destruct Hok as [Hd Hok]. cbn [item_okb] in Hd.
    apply andb_prop in Hd. destruct Hd as [Hx Hta]. apply andb_prop in Hx. destruct Hx as [Hx _]. apply andb_prop in Hx. destruct Hx as [_ Hfx].
    rewrite enc_items_cons, enc_leaf. apply Forall_app. split; [|apply IH; exact Hok].
    apply Forall_app. split; [destruct lk; repeat constructor|]. apply Forall_app. split; [apply seg_bytes_lt|].
    apply Forall_app. split; [apply enc_fx_bytes; exact Hfx|apply enc_ta_bytes; exact Hta].
  - apply forallb_item_cons in Hok. destruct Hok as [Hd Hok]. cbn [item_okb] in Hd.
    apply andb_prop in Hd. destruct Hd as [Hx Hel]. apply andb_prop in Hx. destruct Hx as [Hx Hpk]. apply pkglen_okb_adm in Hpk.
    apply andb_prop in Hx. destruct Hx as [_ Hn]. apply N.ltb_lt in Hn.
    rewrite enc_items_cons, enc_pkg_item. apply Forall_app. split; [|apply IH; exact Hok].
    constructor; [reflexivity|]. apply Forall_app. split; [apply seg_bytes_lt|]. apply Forall_app. split; [repeat constructor|].
    apply Forall_app. split; [apply enc_pkglen_bytes; exact Hpk|]. apply Forall_app. split; [constructor; [exact Hn|constructor]|apply enc_pels_bytes; exact Hel].
Qed.

(** ---- all slots of the range are nodes of [lay2] ---- *)
Lemma lay2_nodes_all h tbl : forall l b off y, b <= y < b + N.of_nat (iszs l) -> In y (rnodesl (lay2 h tbl b off l)).
Proof.
  induction l as [|d rest IH|bk k seg fa body rest IHb IH|lk seg fa ta rest IH|seg k n elems rest IH|sk ta rest IH] using items_ind; intros b off y Hy; [cbn in Hy; lia| | | | |].
  5:{ rewrite lay2_cons, rnodesl_app. rewrite iszs_cons, isz_stmt in Hy. apply in_or_app.
      destruct (N.ltb_spec y (b + N.of_nat (1 + length ta))) as [Hlt|Hge].
      - left. cbn [lay2_item]. unfold rnodesl. cbn [flat_map]. rewrite rnodes_eq. cbn [rnodesl flat_map app].
        destruct (N.eq_dec y b) as [->|Hne]; [left; reflexivity|right].
        fold (rnodesl (leaf_row (b + 1) (cst_pays h tbl (off + slo sk) ta))). apply leaf_row_nodes. rewrite len_cst_pays. lia.
      - right. apply IH. rewrite isz_stmt. lia. }
  - rewrite lay2_cons, rnodesl_app. rewrite iszs_cons in Hy. cbn [isz] in Hy. apply in_or_app.
    destruct (N.ltb_spec y (b + 3)) as [Hlt|Hge].
    + left. cbn [lay2_item rnodesl flat_map rnodes app In]. lia.
    + right. apply IH. cbn [isz]. lia.
  - rewrite lay2_cons, rnodesl_app. rewrite iszs_cons, isz_blk in Hy. apply in_or_app.
    set (nf := length (bfx bk fa)) in *.
    destruct (N.ltb_spec y (b + N.of_nat (3 + nf + iszs body))) as [Hlt|Hge].
    + left. rewrite lay2_blk. unfold rnodesl. cbn [flat_map]. rewrite app_nil_r, rnodes_eq.
      destruct (N.eq_dec y b) as [->|Hne]; [left; reflexivity|right].
      rewrite rnodesl_app. apply in_or_app. unfold nfx. fold nf.
      destruct (N.ltb_spec y (b + 2 + N.of_nat nf)) as [Hl2|Hg2].
      * left. apply leaf_row_nodes. rewrite len_hd_pays. fold nf. lia.
      * right. unfold rnodesl. cbn [flat_map]. rewrite app_nil_r, rnodes_eq.
        destruct (N.eq_dec y (b + 2 + N.of_nat nf)) as [->|Hne2]; [left; reflexivity|right]. apply IHb. lia.
    + right. apply IH. rewrite isz_blk. fold nf. lia.
  - rewrite lay2_cons, rnodesl_app. rewrite iszs_cons, isz_leaf in Hy. apply in_or_app.
    destruct (N.ltb_spec y (b + N.of_nat (2 + length (lfx lk fa) + length ta))) as [Hlt|Hge].
    + left. cbn [lay2_item]. unfold rnodesl. cbn [flat_map]. rewrite app_nil_r, rnodes_eq.
      destruct (N.eq_dec y b) as [->|Hne]; [left; reflexivity|right].
      apply leaf_row_nodes. rewrite app_length, len_lhd_pays, len_cst_pays. lia.
    + right. apply IH. rewrite isz_leaf. lia.
  - rewrite lay2_cons, rnodesl_app. rewrite iszs_cons, isz_pkg in Hy. apply in_or_app.
    destruct (N.ltb_spec y (b + N.of_nat (5 + pels_sz elems))) as [Hlt|Hge].
    + left. cbn [lay2_item]. unfold rnodesl. cbn [flat_map]. rewrite app_nil_r, rnodes_eq.
      destruct (N.eq_dec y b) as [->|Hne]; [left; reflexivity|right].
      unfold rnodesl. cbn [flat_map]. rewrite app_nil_r. apply in_or_app.
      destruct (N.eq_dec y (b + 1)) as [->|Hne1]; [left; rewrite rnodes_eq; left; reflexivity|right]. apply pkg_tree_nodes. lia.
    + right. apply IH. rewrite isz_pkg. lia.
Qed.

(** ---- the kinds of nodes of the final tree ---- *)
Definition f1_ok (h tbl : N) (r : rose) : Prop :=
  match r with RN i a ks =>
    (exists nm, a = mkPay opScopeBlock 113 0 nm 0 0 None) \/
    (exists bk off nm p po rest, a = blk_pay h bk off nm /\ ks = RN p (pth_pay h tbl po) [] :: rest) \/
    (exists off w v, a = num_pay h w off v /\ ks = []) \/
    (exists off, a = sb_pay h off) \/
    (exists off, a = pth_pay h tbl off /\ ks = []) \/
    (exists off nm p po c co d, a = nam_pay h off nm /\ ks = [RN p (pth_pay h tbl po) []; RN c (cst_pay h co d) []] /\ is_constb (d_op d) = true) \/
    (exists off d, a = cst_pay h off d /\ is_constb (d_op d) = true /\ ks = []) \/
    (exists lk off nm p po rest, a = lf_pay h lk off nm /\ ks = RN p (pth_pay h tbl po) [] :: rest) \/
    (exists off b, a = str_pay h tbl off b /\ ks = []) \/
    (exists off nm p po rest, a = nam_pay h off nm /\ ks = RN p (pth_pay h tbl po) [] :: rest) \/
    (exists off, a = pkg_pay h off)
  end.
(** in addition statement operators (their operands are constants / strings, kinds that exist already) *)
Definition f9_ok (h tbl : N) (r : rose) : Prop := f1_ok h tbl r \/ (exists sk off, rpay r = st_pay h sk off).
(** for the objects of some table *)
Definition f9_okE (r : rose) : Prop := exists h tbl, f9_ok h tbl r.

Definition f1_okI (r : rose) : Prop := exists h tbl, f1_ok h tbl r.
Definition f9_ok5 (h tbl : N) (r : rose) : Prop :=
  f1_ok h tbl r \/ (exists sk off, rpay r = st_pay h sk off /\ length (rkids r) = sk_n sk).
Definition f9_ok5E (r : rose) : Prop := exists h tbl, f9_ok5 h tbl r.
Lemma ok5_E r : f9_ok5E r -> f9_okE r.
Proof. intros (h & tbl & [A|(sk & off & A & _)]); exists h, tbl; [left; exact A|right; eauto]. Qed.

Section RowsP.
Variable P : rose -> Prop.
Variable h tbl : N.
Hypothesis HP : forall r, f1_ok h tbl r -> P r.
Lemma fx_row_okP : forall l b off, Forall (rallr P) (leaf_row b (fx_pays h off l)).
Proof.
  induction l as [|[w v] r IH]; intros b off; [constructor|]. cbn [fx_pays leaf_row]. constructor; [|apply IH].
  constructor; [|constructor]. apply HP. cbn [f1_ok]. right; right; left. do 3 eexists. split; reflexivity.
Qed.

Lemma cst_row_okP : forall ta b off, forallb targ_okb ta = true -> Forall (rallr P) (leaf_row b (cst_pays h tbl off ta)).
Proof.
  induction ta as [|d r IH]; intros b off Hok; [constructor|]. cbn [forallb] in Hok. apply andb_prop in Hok. destruct Hok as [Hd Hok].
  cbn [cst_pays leaf_row]. constructor; [|apply IH; exact Hok].
  constructor; [|constructor]. destruct d as [d|bs]; cbn [targ_okb targ_pay] in *.
  - unfold cst_okb in Hd. apply andb_prop in Hd. destruct Hd as [Hc _].
    apply HP. cbn [f1_ok]. do 6 right. left. do 2 eexists. split; [reflexivity|split; [exact Hc|reflexivity]].
  - apply HP. cbn [f1_ok]. do 8 right. left. do 2 eexists. split; reflexivity.
Qed.
End RowsP.

Lemma pel_trees_okP h tbl (P : rose -> Prop) (HP : forall r, f1_ok h tbl r -> P r) :
  forall es b off, forallb pel_okb es = true -> Forall (rallr P) (pel_trees h tbl b off es).
Proof.
  induction es as [|d r IH|k n es r IHe IH] using pels_ind; intros b off Hok; [constructor| |];
    cbn [forallb] in Hok; apply andb_prop in Hok; destruct Hok as [Hd Hok]; rewrite pel_trees_cons; (constructor; [|apply IH; exact Hok]).
  - cbn [pel_tree pel_okb] in *. constructor; [|constructor]. apply HP. destruct d as [d|bs]; cbn [targ_okb targ_pay] in *.
    + unfold cst_okb in Hd. apply andb_prop in Hd. destruct Hd as [Hc _].
      cbn [f1_ok]. do 6 right. left. do 2 eexists. split; [reflexivity|split; [exact Hc|reflexivity]].
    + cbn [f1_ok]. do 8 right. left. do 2 eexists. split; reflexivity.
  - rewrite pel_okb_sub in Hd. apply andb_prop in Hd. destruct Hd as [_ Hes]. rewrite pel_tree_sub.
    constructor; [apply HP; cbn [f1_ok]; do 10 right; eexists; reflexivity|].
    constructor; [|constructor; [|constructor]].
    + constructor; [|constructor]. apply HP. cbn [f1_ok]. right; right; left. do 3 eexists. split; reflexivity.
    + constructor; [apply HP; cbn [f1_ok]; right; right; right; left; eexists; reflexivity|]. apply IHe. exact Hes.
Qed.

Fixpoint stmt_free (it : item) : bool :=
  match it with IBlk _ _ _ _ body => forallb stmt_free body | IStmt _ _ => false | _ => true end.

Section Lay2P.
Variable P : rose -> Prop.
Variable h tbl : N.
Hypothesis HP : forall r, f1_ok h tbl r -> P r.
Lemma lay2_okP : forall l, (forallb stmt_free l = false -> forall b sk off, P (RN b (st_pay h sk off) [])) ->
  forall b off, forallb item_okb l = true -> Forall (rallr P) (lay2 h tbl b off l).
Proof.
  induction l as [|d rest IH|bk k seg fa body rest IHb IH|lk seg fa ta rest IH|seg k n elems rest IH|sk ta rest IH] using items_ind; intros HS b off Hok; [constructor| | | | |].
  5:{ apply forallb_item_cons in Hok. destruct Hok as [Hd Hok]. cbn [item_okb] in Hd. apply andb_prop in Hd. destruct Hd as [_ Hta].
      rewrite lay2_cons. apply Forall_app. split; [|apply IH; [intros _; apply HS; reflexivity|exact Hok]]. cbn [lay2_item]. constructor; [|apply (cst_row_okP P h tbl HP); exact Hta].
      constructor; [|constructor]. apply HS. reflexivity. }
  all: assert (HSr : forallb stmt_free rest = false -> forall b sk off, P (RN b (st_pay h sk off) []))
         by (intros E; apply HS; cbn [forallb]; rewrite E; apply andb_false_r).
  - apply forallb_item_cons in Hok. destruct Hok as [Hd Hok]. cbn [item_okb] in Hd. apply andb_prop in Hd. destruct Hd as [Hd _].
    unfold decl_okb in Hd. apply andb_prop in Hd. destruct Hd as [Hd _]. apply andb_prop in Hd. destruct Hd as [_ Hc].
    rewrite lay2_cons. apply Forall_app. split; [|apply IH; [exact HSr|exact Hok]]. cbn [lay2_item]. constructor; [|constructor].
    constructor.
    + apply HP. cbn [f1_ok]. right; right; right; right; right; left. do 7 eexists. split; [reflexivity|split; [reflexivity|exact Hc]].
    + constructor; [|constructor; [|constructor]].
      * constructor; [|constructor]. apply HP. cbn [f1_ok]. right; right; right; right; left. eexists. split; reflexivity.
      * constructor; [|constructor]. apply HP. cbn [f1_ok]. right; right; right; right; right; right; left. do 2 eexists. split; [reflexivity|split; [exact Hc|reflexivity]].
  - apply forallb_item_cons in Hok. destruct Hok as [Hd Hok]. cbn [item_okb] in Hd. apply andb_prop in Hd. destruct Hd as [_ Hbody].
    rewrite lay2_cons. apply Forall_app. split; [|apply IH; [exact HSr|exact Hok]]. rewrite lay2_blk. constructor; [|constructor].
    unfold hd_pays. cbn [leaf_row app]. constructor.
    + apply HP. cbn [f1_ok]. right; left. do 6 eexists. split; reflexivity.
    + constructor; [|apply Forall_app; split; [apply (fx_row_okP P h tbl HP)|constructor; [|constructor]]].
      * constructor; [|constructor]. apply HP. cbn [f1_ok]. right; right; right; right; left. eexists. split; reflexivity.
      * constructor; [|apply IHb; [intros E; apply HS; cbn [forallb stmt_free]; rewrite E; reflexivity|exact Hbody]]. apply HP. cbn [f1_ok]. right; right; right; left. eexists. reflexivity.
  - apply forallb_item_cons in Hok. destruct Hok as [Hd Hok]. cbn [item_okb] in Hd. apply andb_prop in Hd. destruct Hd as [_ Hta].
    rewrite lay2_cons. apply Forall_app. split; [|apply IH; [exact HSr|exact Hok]]. cbn [lay2_item]. constructor; [|constructor].
    unfold lhd_pays. cbn [leaf_row app]. constructor.
    + apply HP. cbn [f1_ok]. do 7 right. left. do 6 eexists. split; reflexivity.
    + constructor.
      * constructor; [|constructor]. apply HP. cbn [f1_ok]. right; right; right; right; left. eexists. split; reflexivity.
      * rewrite leaf_row_app. apply Forall_app. split; [apply (fx_row_okP P h tbl HP)|apply (cst_row_okP P h tbl HP); exact Hta].
  - apply forallb_item_cons in Hok. destruct Hok as [Hd Hok]. cbn [item_okb] in Hd. apply andb_prop in Hd. destruct Hd as [_ Hel].
    rewrite lay2_cons. apply Forall_app. split; [|apply IH; [exact HSr|exact Hok]]. cbn [lay2_item]. unfold pkg_tree. rewrite pel_tree_sub. constructor; [|constructor].
    constructor.
    + apply HP. cbn [f1_ok]. do 9 right. left. do 5 eexists. split; reflexivity.
    + constructor; [|constructor; [|constructor]].
      * constructor; [|constructor]. apply HP. cbn [f1_ok]. right; right; right; right; left. eexists. split; reflexivity.
      * constructor; [apply HP; cbn [f1_ok]; do 10 right; eexists; reflexivity|].
        constructor; [|constructor; [|constructor]].
        -- constructor; [|constructor]. apply HP. cbn [f1_ok]. right; right; left. do 3 eexists. split; reflexivity.
        -- constructor; [apply HP; cbn [f1_ok]; right; right; right; left; eexists; reflexivity|]. apply (pel_trees_okP h tbl P HP). exact Hel.
Qed.

End Lay2P.

Lemma lay2_ok h tbl : forall l b off, forallb item_okb l = true -> Forall (rallr f9_okE) (lay2 h tbl b off l).
Proof.
  intros l. apply (lay2_okP f9_okE h tbl).
  - intros r Hr. exists h, tbl. left. exact Hr.
  - intros _ b sk off. exists h, tbl. right. do 2 eexists. reflexivity.
Qed.

Lemma lay5_cons h tbl b off x t : lay5 h tbl b off (x :: t) = lay5_item h tbl b off x ++ lay5 h tbl (b + N.of_nat (isz x)) (off + lenN (enc_item x)) t.
Proof. reflexivity. Qed.
Lemma leaf_row_rsizes_len b ps : length (leaf_row b ps) = length ps.
Proof. revert b. induction ps as [|p r IH]; intros b; [reflexivity|]. cbn [leaf_row length]. rewrite IH. reflexivity. Qed.

Section Lay5P.
Variable P : rose -> Prop.
Variable h tbl : N.
Hypothesis HP : forall r, f1_ok h tbl r -> P r.
Hypothesis HS : forall b sk off ks, length ks = sk_n sk -> P (RN b (st_pay h sk off) ks).
Lemma lay5_okP : forall l b off, forallb item_okb l = true -> Forall (rallr P) (lay5 h tbl b off l).
Proof.
  induction l as [|d rest IH|bk k seg fa body rest IHb IH|lk seg fa ta rest IH|seg k n elems rest IH|sk ta rest IH] using items_ind; intros b off Hok; [constructor| | | | |].
  5:{ apply forallb_item_cons in Hok. destruct Hok as [Hd Hok]. cbn [item_okb] in Hd. apply andb_prop in Hd. destruct Hd as [Hn Hta].
      rewrite lay5_cons. apply Forall_app. split; [|apply IH; exact Hok].
      cbn [lay5_item]. constructor; [|constructor]. constructor; [|apply (cst_row_okP P h tbl HP); exact Hta].
      apply HS. rewrite leaf_row_rsizes_len, len_cst_pays. apply Nat.eqb_eq. exact Hn. }
  - apply forallb_item_cons in Hok. destruct Hok as [Hd Hok]. cbn [item_okb] in Hd. apply andb_prop in Hd. destruct Hd as [Hd _].
    unfold decl_okb in Hd. apply andb_prop in Hd. destruct Hd as [Hd _]. apply andb_prop in Hd. destruct Hd as [_ Hc].
    rewrite lay5_cons. apply Forall_app. split; [|apply IH; exact Hok]. cbn [lay5_item]. constructor; [|constructor].
    constructor.
    + apply HP. cbn [f1_ok]. right; right; right; right; right; left. do 7 eexists. split; [reflexivity|split; [reflexivity|exact Hc]].
    + constructor; [|constructor; [|constructor]].
      * constructor; [|constructor]. apply HP. cbn [f1_ok]. right; right; right; right; left. eexists. split; reflexivity.
      * constructor; [|constructor]. apply HP. cbn [f1_ok]. right; right; right; right; right; right; left. do 2 eexists. split; [reflexivity|split; [exact Hc|reflexivity]].
  - apply forallb_item_cons in Hok. destruct Hok as [Hd Hok]. cbn [item_okb] in Hd. apply andb_prop in Hd. destruct Hd as [_ Hbody].
    rewrite lay5_cons. apply Forall_app. split; [|apply IH; exact Hok]. rewrite lay5_blk. constructor; [|constructor].
    unfold hd_pays. cbn [leaf_row app]. constructor.
    + apply HP. cbn [f1_ok]. right; left. do 6 eexists. split; reflexivity.
    + constructor; [|apply Forall_app; split; [apply (fx_row_okP P h tbl HP)|constructor; [|constructor]]].
      * constructor; [|constructor]. apply HP. cbn [f1_ok]. right; right; right; right; left. eexists. split; reflexivity.
      * constructor; [|apply IHb; exact Hbody]. apply HP. cbn [f1_ok]. right; right; right; left. eexists. reflexivity.
  - apply forallb_item_cons in Hok. destruct Hok as [Hd Hok]. cbn [item_okb] in Hd. apply andb_prop in Hd. destruct Hd as [_ Hta].
    rewrite lay5_cons. apply Forall_app. split; [|apply IH; exact Hok]. cbn [lay5_item]. constructor; [|constructor].
    unfold lhd_pays. cbn [leaf_row app]. constructor.
    + apply HP. cbn [f1_ok]. do 7 right. left. do 6 eexists. split; reflexivity.
    + constructor.
      * constructor; [|constructor]. apply HP. cbn [f1_ok]. right; right; right; right; left. eexists. split; reflexivity.
      * rewrite leaf_row_app. apply Forall_app. split; [apply (fx_row_okP P h tbl HP)|apply (cst_row_okP P h tbl HP); exact Hta].
  - apply forallb_item_cons in Hok. destruct Hok as [Hd Hok]. cbn [item_okb] in Hd. apply andb_prop in Hd. destruct Hd as [_ Hel].
    rewrite lay5_cons. apply Forall_app. split; [|apply IH; exact Hok]. cbn [lay5_item]. unfold pkg_tree. rewrite pel_tree_sub. constructor; [|constructor].
    constructor.
    + apply HP. cbn [f1_ok]. do 9 right. left. do 5 eexists. split; reflexivity.
    + constructor; [|constructor; [|constructor]].
      * constructor; [|constructor]. apply HP. cbn [f1_ok]. right; right; right; right; left. eexists. split; reflexivity.
      * constructor; [apply HP; cbn [f1_ok]; do 10 right; eexists; reflexivity|].
        constructor; [|constructor; [|constructor]].
        -- constructor; [|constructor]. apply HP. cbn [f1_ok]. right; right; left. do 3 eexists. split; reflexivity.
        -- constructor; [apply HP; cbn [f1_ok]; right; right; right; left; eexists; reflexivity|]. apply (pel_trees_okP h tbl P HP). exact Hel.
Qed.

End Lay5P.

Lemma lay5_ok5 h tbl : forall l b off, forallb item_okb l = true -> Forall (rallr f9_ok5E) (lay5 h tbl b off l).
Proof.
  apply (lay5_okP f9_ok5E h tbl).
  - intros r Hr. exists h, tbl. left. exact Hr.
  - intros b sk off ks Hl. exists h, tbl. right. exists sk, off. split; [reflexivity|exact Hl].
Qed.

(** ---- the local conditions of the walks, for every node kind ---- *)
Lemma f9_conds (t : T) g pl R0 (H0 : N) : Rep t g pl -> Desc g pl R0 -> rallr f9_okE R0 ->
  forall y a, In y (rnodes R0) -> pget pl y = Some a -> y_op a <> opFreed ->
  merge_ok H0 a /\ defer_ok H0 a /\ reloc_ok g pl H0 y a /\
  ((forall h sk off, a = st_pay h sk off -> length (kids g y) = sk_n sk) -> nonnamed_ok g H0 y a /\ calls_ok g H0 y a).
Proof.
  intros H HD Hok y a Hin Hy Hly.
  destruct (rallr_lookup g pl f9_okE R0 HD Hok y Hin) as (a' & ks & Dy & (h & tbl & Oy)).
  destruct (Desc_inv _ _ _ _ _ Dy) as (Py & Ky & Dks). assert (a' = a) by congruence. subst a'.
  destruct Oy as [Oy|(sk & off & Ea)].
  2:{ cbn [rpay] in Ea. subst a. destruct (sk_row sk) as (Hr & _ & Hac & Htai).
      split; [exists (sk_op sk), 16, (sk_af sk); split; [exact Hr|left; reflexivity]|].
      split; [exists (sk_op sk), 16, (sk_af sk); split; [exact Hr|reflexivity]|].
      split; [exists (sk_op sk), 16, (sk_af sk); split; [exact Hr|left; reflexivity]|].
      intros Hfull. specialize (Hfull h sk off eq_refl).
      assert (Hnn : nonnamed_ok g H0 y (st_pay h sk off)).
      { exists (sk_op sk), 16, (sk_af sk). split; [exact Hr|]. right. rewrite Hac, Htai, Hfull. destruct (sk_n sk); reflexivity. }
      split; [exact Hnn|]. split; [destruct sk; reflexivity|exact Hnn]. }
  cut (merge_ok H0 a /\ defer_ok H0 a /\ reloc_ok g pl H0 y a /\ nonnamed_ok g H0 y a /\ calls_ok g H0 y a);
    [intros (X1 & X2 & X3 & X4 & X5); split; [exact X1|split; [exact X2|split; [exact X3|intros _; split; [exact X4|exact X5]]]]|].
  assert (Hcalls : forall (P : Prop), P -> (negb (y_op a =? aml_pOpIntNamePathOrMethodCall) || negb (y_th a =? H0) = true) -> nonnamed_ok g H0 y a ->
            P /\ nonnamed_ok g H0 y a /\ calls_ok g H0 y a) by (intros P HP Hc Hn; split; [exact HP|split; [exact Hn|split; assumption]]).
  cbn [f1_ok] in Oy. destruct Oy as [(nm & ->)|[(bk & off & nm & p & po & rest & -> & ->)|[(off & w & v & -> & ->)|[(off & ->)|[(off & -> & ->)|[(off & nm & p & po & c & co & d & -> & -> & Hc)|[(off & d & -> & Hc & ->)|[(lk & off & nm & p & po & rest & -> & ->)|[(off & bs & -> & ->)|[(off & nm & p & po & rest & -> & ->)|(off & ->)]]]]]]]]]].
  - (* default scope *)
    split; [do 3 eexists; split; [reflexivity|right; reflexivity]|]. split; [do 3 eexists; split; reflexivity|].
    apply Hcalls; [|reflexivity|do 3 eexists; split; [reflexivity|left; reflexivity]].
    do 3 eexists. split; [reflexivity|]. right; left. cbn [y_th y_op]. change (negb (opScopeBlock =? aml_pOpIntScopeBlock)) with false. rewrite andb_false_r. reflexivity.
  - (* block-like named object *)
    destruct bk;
      (split; [do 3 eexists; split; [reflexivity|right; reflexivity]|]; split; [do 3 eexists; split; reflexivity|];
       apply Hcalls; [|reflexivity|do 3 eexists; split; [reflexivity|left; reflexivity]];
       do 3 eexists; split; [reflexivity|]; right; right;
       pose proof (Forall_inv Dks) as Dp; destruct (Desc_inv _ _ _ _ _ Dp) as (Pp & _ & _);
       exists p, (pth_pay h tbl po), tbl, (mkSlice (Some po) 4); rewrite Ky; cbn [map ridx hd];
       split; [reflexivity|]; split; [exact Pp|]; split; [discriminate|]; split; [reflexivity|]; cbn [s_len]; cbv; discriminate).
  - (* fixed data argument *)
    unfold num_pay, merge_ok, defer_ok, reloc_ok, nonnamed_ok, calls_ok. cbn [y_info y_op y_th].
    destruct w;
      (split; [do 3 eexists; split; [reflexivity|right; reflexivity]|]; split; [do 3 eexists; split; reflexivity|];
       split; [do 3 eexists; split; [reflexivity|right; left; reflexivity]|];
       split; [do 3 eexists; split; [reflexivity|right; reflexivity]|]; split; [reflexivity|do 3 eexists; split; [reflexivity|right; reflexivity]]).
  - (* ScopeBlock of a block *)
    split; [do 3 eexists; split; [reflexivity|right; reflexivity]|]. split; [do 3 eexists; split; reflexivity|].
    apply Hcalls; [|reflexivity|do 3 eexists; split; [reflexivity|left; reflexivity]].
    do 3 eexists. split; [reflexivity|]. right; left. cbn [sb_pay y_th y_op].
    change (negb (aml_pOpIntScopeBlock =? aml_pOpIntScopeBlock)) with false. rewrite andb_false_r. reflexivity.
  - (* name path *)
    split; [do 3 eexists; split; [reflexivity|right; reflexivity]|]. split; [do 3 eexists; split; reflexivity|].
    apply Hcalls; [|reflexivity|do 3 eexists; split; [reflexivity|right; reflexivity]].
    do 3 eexists. split; [reflexivity|]. right; left. reflexivity.
  - (* Name *)
    split; [do 3 eexists; split; [reflexivity|right; reflexivity]|]. split; [do 3 eexists; split; reflexivity|].
    apply Hcalls; [|reflexivity|do 3 eexists; split; [reflexivity|left; reflexivity]].
    do 3 eexists. split; [reflexivity|]. right; right.
    pose proof (Forall_inv Dks) as Dp. destruct (Desc_inv _ _ _ _ _ Dp) as (Pp & _ & _).
    exists p, (pth_pay h tbl po), tbl, (mkSlice (Some po) 4). rewrite Ky. cbn [map ridx hd].
    split; [reflexivity|]. split; [exact Pp|]. split; [discriminate|]. split; [reflexivity|]. cbn [s_len]. cbv. discriminate.
  - (* constant *)
    unfold cst_pay, merge_ok, defer_ok, reloc_ok, nonnamed_ok, calls_ok. cbn [y_info y_op y_th].
    destruct (is_constb_cases _ Hc) as [E|[E|[E|[E|[E|[E|E]]]]]]; rewrite E;
      (split; [do 3 eexists; split; [reflexivity|right; reflexivity]|]; split; [do 3 eexists; split; reflexivity|];
       split; [do 3 eexists; split; [reflexivity|right; left; reflexivity]|];
       split; [do 3 eexists; split; [reflexivity|right; reflexivity]|]; split; [reflexivity|do 3 eexists; split; [reflexivity|right; reflexivity]]).
  - (* leaf named object *)
    destruct lk;
      (split; [do 3 eexists; split; [reflexivity|right; reflexivity]|]; split; [do 3 eexists; split; reflexivity|];
       apply Hcalls; [|reflexivity|do 3 eexists; split; [reflexivity|left; reflexivity]];
       do 3 eexists; split; [reflexivity|]; right; right;
       pose proof (Forall_inv Dks) as Dp; destruct (Desc_inv _ _ _ _ _ Dp) as (Pp & _ & _);
       exists p, (pth_pay h tbl po), tbl, (mkSlice (Some po) 4); rewrite Ky; cbn [map ridx hd];
       split; [reflexivity|]; split; [exact Pp|]; split; [discriminate|]; split; [reflexivity|]; cbn [s_len]; cbv; discriminate).
  - (* string *)
    unfold str_pay, merge_ok, defer_ok, reloc_ok, nonnamed_ok, calls_ok. cbn [y_info y_op y_th].
    split; [do 3 eexists; split; [reflexivity|right; reflexivity]|]. split; [do 3 eexists; split; reflexivity|].
    split; [do 3 eexists; split; [reflexivity|right; left; reflexivity]|].
    split; [do 3 eexists; split; [reflexivity|right; reflexivity]|]. split; [reflexivity|do 3 eexists; split; [reflexivity|right; reflexivity]].
  - (* Name with any value *)
    split; [do 3 eexists; split; [reflexivity|right; reflexivity]|]. split; [do 3 eexists; split; reflexivity|].
    apply Hcalls; [|reflexivity|do 3 eexists; split; [reflexivity|left; reflexivity]].
    do 3 eexists. split; [reflexivity|]. right; right.
    pose proof (Forall_inv Dks) as Dp. destruct (Desc_inv _ _ _ _ _ Dp) as (Pp & _ & _).
    exists p, (pth_pay h tbl po), tbl, (mkSlice (Some po) 4). rewrite Ky. cbn [map ridx hd].
    split; [reflexivity|]. split; [exact Pp|]. split; [discriminate|]. split; [reflexivity|]. cbn [s_len]. cbv. discriminate.
  - (* Package *)
    unfold pkg_pay, merge_ok, defer_ok, reloc_ok, nonnamed_ok, calls_ok. cbn [y_info y_op y_th].
    split; [do 3 eexists; split; [reflexivity|right; reflexivity]|]. split; [do 3 eexists; split; reflexivity|].
    split; [do 3 eexists; split; [reflexivity|right; left; reflexivity]|].
    split; [do 3 eexists; split; [reflexivity|right; reflexivity]|]. split; [reflexivity|do 3 eexists; split; [reflexivity|right; reflexivity]].
Qed.

(** ---- statements: the conditions of resolveMethodCalls / connectNonNamedObjArgs once the operands are attached ---- *)
Lemma rallr_mono (P Q : rose -> Prop) : (forall r, P r -> Q r) -> forall r, rallr P r -> rallr Q r.
Proof.
  intros HPQ. induction r as [i a ks IH] using rose_ind2. intros Hr. apply rallr_inv in Hr. destruct Hr as (Hp & Hks).
  constructor; [apply HPQ; exact Hp|]. rewrite Forall_forall in IH, Hks |- *. intros c Hc. apply (IH c Hc). apply (Hks c Hc).
Qed.

Lemma sk_op_inj sk sk' : sk_op sk = sk_op sk' -> sk = sk'.
Proof. destruct sk, sk'; intros E; try reflexivity; cbv in E; discriminate E. Qed.

Lemma f1_ok_not_stmt h tbl y a ks h' sk off : f1_ok h tbl (RN y a ks) -> a <> st_pay h' sk off.
Proof.
  intros Oy E. assert (Hop : y_op a = sk_op sk) by (rewrite E; reflexivity). clear E. cbn [f1_ok] in Oy.
  destruct Oy as [(nm & ->)|[(bk & off0 & nm & p & po & rest & -> & _)|[(off0 & w & v & -> & _)|[(off0 & ->)|[(off0 & -> & _)|[(off0 & nm & p & po & c & co & d & -> & _ & _)|[(off0 & d & -> & Hc & _)|[(lk & off0 & nm & p & po & rest & -> & _)|[(off0 & bs & -> & _)|[(off0 & nm & p & po & rest & -> & _)|(off0 & ->)]]]]]]]]]].
  7:{ unfold cst_pay in Hop. cbn [y_op] in Hop. destruct (is_constb_cases _ Hc) as [E|[E|[E|[E|[E|[E|E]]]]]]; rewrite E in Hop; destruct sk; cbv in Hop; discriminate Hop. }
  all: try destruct bk; try destruct w; try destruct lk; destruct sk; cbv in Hop; discriminate Hop.
Qed.

Lemma f5_conds (t : T) g pl R0 (H0 : N) : Rep t g pl -> Desc g pl R0 -> rallr f9_ok5E R0 ->
  forall y a, In y (rnodes R0) -> pget pl y = Some a -> y_op a <> opFreed ->
  merge_ok H0 a /\ defer_ok H0 a /\ reloc_ok g pl H0 y a /\ nonnamed_ok g H0 y a /\ calls_ok g H0 y a.
Proof.
  intros H HD Hok y a Hin Hy Hly.
  assert (HokE : rallr f9_okE R0) by (apply (rallr_mono f9_ok5E f9_okE ok5_E); exact Hok).
  destruct (f9_conds t g pl R0 H0 H HD HokE y a Hin Hy Hly) as (A & B & C & D).
  split; [exact A|]. split; [exact B|]. split; [exact C|]. apply D.
  intros h sk off Ea.
  destruct (rallr_lookup g pl f9_ok5E R0 HD Hok y Hin) as (a' & ks & Dy & (h' & tbl & Oy)).
  destruct (Desc_inv _ _ _ _ _ Dy) as (Py & Ky & _). assert (a' = a) by congruence. subst a'.
  rewrite Ky, map_length. destruct Oy as [Oy|(sk' & off' & Ea' & Hl)].
  - exfalso. exact (f1_ok_not_stmt _ _ _ _ _ _ _ _ Oy Ea).
  - cbn [rpay rkids] in Ea', Hl. rewrite Ea in Ea'. unfold st_pay in Ea'. injection Ea' as E1 _ _ _. apply sk_op_inj in E1. subst sk'. exact Hl.
Qed.

(** ---- the final tree ---- *)
Definition dflt_leaves : list rose :=
  [RN 1 (scope_pay 0 [95; 71; 80; 69]) []; RN 2 (scope_pay 0 [95; 80; 82; 95]) []; RN 3 (scope_pay 0 [95; 83; 66; 95]) [];
   RN 4 (scope_pay 0 [95; 83; 73; 95]) []; RN 5 (scope_pay 0 [95; 84; 90; 95]) []].

Definition root_tree (its : list item) : rose :=
  RN 0 (scope_pay 0 [92; 0; 0; 0]) (dflt_leaves ++ lay2 1 0 6 aml_sizeofSDTHeader its).

Lemma lay2_rsizes h tbl : forall l b off, rsizes (lay2 h tbl b off l) = iszs l.
Proof.
  induction l as [|d rest IH|bk k seg fa body rest IHb IH|lk seg fa ta rest IH|seg k n elems rest IH|sk ta rest IH] using items_ind; intros b off; [reflexivity| | | | |].
  5:{ rewrite lay2_cons, rsizes_app, IH, iszs_cons, isz_stmt. cbn [lay2_item]. rewrite rsizes_cons, rsize_eq, leaf_row_rsizes, len_cst_pays. cbn [rsizes fold_right]. lia. }
  - rewrite lay2_cons, rsizes_app, IH, iszs_cons. reflexivity.
  - rewrite lay2_cons, rsizes_app, IH, iszs_cons, lay2_blk, isz_blk. cbn [rsizes fold_right]. rewrite !rsize_eq.
    rewrite rsizes_app, leaf_row_rsizes, len_hd_pays. cbn [rsizes fold_right]. rewrite rsize_eq, IHb. lia.
  - rewrite lay2_cons, rsizes_app, IH, iszs_cons, isz_leaf. cbn [lay2_item rsizes fold_right]. rewrite rsize_eq, leaf_row_rsizes, app_length, len_lhd_pays, len_cst_pays. lia.
  - rewrite lay2_cons, rsizes_app, IH, iszs_cons, isz_pkg. cbn [lay2_item]. rewrite rsizes_cons, rsize_eq, rsizes_cons, rsizes_cons, rsize_eq, pkg_tree_rsize. cbn [rsizes fold_right]. lia.
Qed.

Lemma root_tree_size its : rsize (root_tree its) = (6 + iszs its)%nat.
Proof. unfold root_tree. rewrite rsize_eq, rsizes_app, lay2_rsizes. reflexivity. Qed.

Lemma dflt_okE i nm ks : f9_okE (RN i (mkPay opScopeBlock 113 0 nm 0 0 None) ks).
Proof. exists 0, 0. left. cbn [f1_ok]. left. eexists. reflexivity. Qed.

Lemma root_tree_ok its : forallb item_okb its = true -> rallr f9_okE (root_tree its).
Proof.
  intros Hok. unfold root_tree. constructor; [apply dflt_okE|].
  apply Forall_app. split; [|apply lay2_ok; exact Hok].
  unfold dflt_leaves. repeat (constructor; [constructor; [apply dflt_okE|constructor]|]). constructor.
Qed.

Lemma root_tree_nodes its y : y < 6 + N.of_nat (iszs its) -> In y (rnodes (root_tree its)).
Proof.
  intros Hy. unfold root_tree. rewrite rnodes_eq, rnodesl_app.
  destruct (N.ltb_spec y 6) as [Hlt|Hge].
  - assert (Hc : y = 0 \/ y = 1 \/ y = 2 \/ y = 3 \/ y = 4 \/ y = 5) by lia.
    destruct Hc as [ -> | [ -> | [ -> | [ -> | [ -> | -> ] ] ] ] ]; cbn; tauto.
  - right. apply in_or_app. right. apply lay2_nodes_all. lia.
Qed.

Lemma leaf_desc g pl d a : pget pl d = Some a -> kids g d = [] -> Desc g pl (RN d a []).
Proof. intros Hp Hk. constructor; [exact Hp|exact Hk|constructor]. Qed.

(** fuel: [cfuel its], one unit for the root, [R >= 8] for [cspec_all], 7 for the walk over the default scopes; 24 is a
    round bound above their sum *)
Lemma pass2_f1 its fuel t1 g1 pl1 hdr :
  let data := hdr ++ enc_items its in
  forallb item_okb its = true -> lenN hdr = aml_sizeofSDTHeader ->
  Rep t1 g1 pl1 -> Post1 g0c pl0c g1 pl1 0 (lay1 1 0 6 aml_sizeofSDTHeader its) ->
  (cfuel its + 24 <= fuel)%nat ->
  wp False (connectNamedObjArgs fuel 0) (after_first t1 [] 1 data) (fun r s' => r = ROk /\ exists t2 g2 pl2,
    s' = with_tree (after_first t1 [] 1 data) t2 /\ Rep t2 g2 pl2 /\ Desc g2 pl2 (root_tree its) /\
    N.of_nat (length pl2) <= 6 + N.of_nat (iszs its)).
Proof.
  intros data Hok Hhdr H1 P1 Hfuel. destruct P1 as [A1 A2 A3 A4 A5 A6]. change (N.of_nat (length pl0c)) with 6 in *.
  set (s1 := after_first t1 [] 1 data).
  assert (Hp0 : pget pl1 0 = Some (scope_pay 0 [92; 0; 0; 0])) by (rewrite A6 by lia; reflexivity).
  assert (Hk0 : kids g1 0 = D0 ++ map ridx (lay1 1 0 6 aml_sizeofSDTHeader its) ++ []) by (rewrite A3, app_nil_r; reflexivity).
  destruct fuel as [|F]; [lia|]. rewrite connectNamedObjArgs_S.
  apply wp_bind. eapply wp_objectAt_rep; [exact H1|exact Hp0|discriminate|].
  apply wp_bind. eapply wp_rdf_rep; [exact H1|exact Hp0|discriminate|]. intros o0 _ _ _ Hlast. rewrite Hlast, A3.
  change (kids g0c 0) with D0.
  pose proof (clen_le_cfuel its) as Hcl.
  eapply (cspec_all 1 0 [data] data eq_refl its 0 D0 [] 6 aml_sizeofSDTHeader s1 g1 pl1 F _ (F - cfuel its)%nat hdr []);
    [exact H1|exact Hk0|exact A4|exact Hp0|discriminate|left; lia|reflexivity|reflexivity|unfold data; rewrite app_nil_r; reflexivity|symmetry; exact Hhdr|exact Hok|lia|lia|].
  intros t2 g2 pl2 H2 [Q1 Q2 Q3 Q4]. rewrite app_nil_r in Q1.
  replace (F - clen its)%nat with (length D0 + S (S (F - clen its - 7)))%nat by (cbn [D0 length]; lia).
  assert (HD0 : forall d, In d D0 -> kids g2 d = [] /\ pget pl2 d = pget pl0c d).
  { intros d Hd. destruct (D0_facts d Hd) as (Hlt & Hne & _). change (N.of_nat 6) with 6 in Hlt.
    split; [rewrite Q3 by lia; rewrite A5 by lia; apply kids_g0c; exact Hne|rewrite Q4 by lia; apply A6; exact Hlt]. }
  eapply (conn_leaves D0 _ 0 (map ridx (lay2 1 0 6 aml_sizeofSDTHeader its)) _ g2 pl2); [exact H2|exact Q1| |].
  { intros d Hd. destruct (HD0 d Hd) as (E1 & E2). split; [exact E1|]. destruct (D0_facts d Hd) as (_ & _ & a & row & Ha & Hl & Hrow).
    exists a, row. rewrite E2. auto. }
  split; [reflexivity|]. exists t2, g2, pl2. split; [reflexivity|]. split; [exact H2|]. split.
  - unfold root_tree. constructor.
    + rewrite Q4 by lia. exact Hp0.
    + rewrite Q1, map_app. reflexivity.
    + apply Forall_app. split; [|exact Q2]. apply Forall_forall. intros r Hr. unfold dflt_leaves in Hr. cbn [In] in Hr.
      destruct Hr as [ <- | [ <- | [ <- | [ <- | [ <- | [] ] ] ] ] ];
        (apply leaf_desc; [match goal with |- pget pl2 ?d = _ => rewrite (proj2 (HD0 d ltac:(cbn; tauto))) end; reflexivity|apply HD0; cbn; tauto]).
  - destruct (N.leb_spec (N.of_nat (length pl2)) (6 + N.of_nat (iszs its))) as [Hle|Hgt]; [exact Hle|]. exfalso.
    assert (Hnone : pget pl2 (6 + N.of_nat (iszs its)) = None).
    { rewrite Q4 by lia. apply pget_none. rewrite A2, lay1_rsizes. cbn [pl0c map length tree_defaultScopeNames]. lia. }
    assert (Hsome : pget pl2 (6 + N.of_nat (iszs its)) <> None).
    { unfold pget. apply nth_error_Some. lia. }
    contradiction.
Qed.

