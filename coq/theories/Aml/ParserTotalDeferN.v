(** parseDeferredBlocks: the step of parseNamePathOrMethodCall - the name is resolved while parsing; if it
    resolves to a Method the new object becomes a method call and takes the number of arguments the Method declares. *)
From Coq Require Import NArith Arith List Bool Lia.
From Coq Require Import ZifyBool ZifyN ZifyNat.
From FF Require Import Lib.Word Gen.Consts_device_acpi_aml Gen.Consts_aml_tree Aml.Stream Aml.Lex Aml.LexProofs
  Aml.Tree Aml.Parser Aml.ParserProofs Aml.TreeSpec Aml.TreeProofs Aml.TreeProofsOps Aml.TreeProofsFind Aml.TreeProofsAnc
  Aml.ParserTotalTree Aml.ParserTotalTree2 Aml.ParserTotalLex Aml.ParserTotalTable Aml.ParserTotalBase Aml.ParserTotalLeaf
  Aml.ParserTotalFrame Aml.ParserTotalLeaf2 Aml.ParserTotalFirst Aml.ParserTotalConn Aml.ParserTotalReloc Aml.ParserTotalDefer.
Import ListNotations.
Local Open Scope N_scope.

Section StepN.
Variable tbls : list (list N).
Notation IV := (Inv tbls).

Lemma step_Dname fuel : D_callargs tbls fuel -> D_name tbls (S fuel).
Proof.
  intros IHc s g top rest H I0 H0 Est Hroom HTM Hnnp. cbn [parseNamePathOrMethodCall].
  pose proof (fi_rok _ _ H) as Hrok. pose proof (roomD_lp _ _ Hroom) as Hlp.
  pose proof (fi_R _ _ H) as HR. pose proof (R_gwf _ _ HR) as Hwf.
  pose proof (scope_topD _ _ _ _ H Est) as Htop.
  wbi tbls I0. apply wp_get. intros _.
  wbi tbls I0. apply wp_get. intros _.
  apply (wp_bind_hoare tbls _ _ _ _ _ (fun x => slice_ok tbls (cur tbls) (fst x)) I0);
    [apply hoare_lex_slice; [apply safe2_parseNameString|right; reflexivity]|].
  apply wp_namestring; auto. intros v ok r1 Hadv Hok I1 Hsl. cbn [fst] in Hsl.
  set (s1 := with_r s r1) in *.
  assert (H1 : FD s1 g) by (apply FI_adv; auto).
  assert (F1 : Fr NoP (eq top) NoP s g s1 g) by (eapply Fr_tree_eq; [apply Fr_refl|reflexivity]).
  assert (A1 : at_ s s1 0 0) by (apply at_adv0; [apply at_refl; auto|exact Hadv]).
  destruct ok; cbn [negb].
  2:{ apply wp_ret. exists g. split; [exact H1|]. split; [eapply at_ExtD; [exact A1|apply gext_refl]|]. split; [exact F1|].
      pose proof (at_Psi _ _ _ _ A1). split; [lia|]. split; [discriminate|]. intros E; discriminate. }
  specialize (Hok eq_refl).
  assert (A1' : at_ s s1 1 0).
  { eapply at_r; [apply at_refl; auto|destruct Hadv as ((_ & E & _) & _); exact E|lia|destruct Hadv as (_ & _ & L); exact L]. }
  pose proof (at_Psi _ _ _ _ A1') as P1.
  wbi tbls I1. apply wp_get. intros _. rewrite (fi_skip _ _ H1). cbn [negb].
  wbi tbls I1. eapply wp_scopeCurrent; [exact Est|]. intros _.
  rewrite (FI_ObjectAt _ _ _ H1 Htop).
  assert (Hlive_top : live (p_tree s1) top) by (apply (R_live_glive _ _ (fi_R _ _ H1)); exact Htop).
  assert (Hlive_0 : True) by exact I.
  wbi tbls I1. eapply wp_tq; [apply (ClosestNamedAncestor_spec _ _ (fi_R _ _ H1) (info_valid_ok _ (fi_info _ _ H1)) top Hlive_top)|]. intros _.
  assert (Hsl1 : slice_ok (p_tables s1) (N.of_nat (length (p_tables s1)) - 1) v).
  { rewrite (inv_tbls _ _ I1). exact Hsl. }
  destruct (slice_bytes_ok s1 _ v Hsl1) as (bytes & Eb & _).
  wbi tbls I1. eapply wp_bytesOf; [exact Eb|]. intros _.
  assert (Hlive_r : live (p_tree s1) 0) by (apply (R_live_glive _ _ (fi_R _ _ H1)); exact H0).
  destruct (Find_from_closest (p_tree s1) g top bytes (fi_R _ _ H1) Hlive_top Hlive_r) as (target & Efind & Htarget).
  wbi tbls I1. eapply wp_tq; [exact Efind|]. intros _.
  destruct (N.eqb_spec target InvalidIndex) as [Et|Et].
  { apply wp_ret. exists g. split; [exact H1|]. split; [eapply at_ExtD; [exact A1'|apply gext_refl]|]. split; [exact F1|].
    split; [lia|]. split; [discriminate|]. intros E; discriminate. }
  destruct Htarget as [?|Hlt]; [contradiction|].
  wbi tbls I1. apply wp_get. intros _. rewrite (FI_ObjectAt _ _ _ H1 Hlt).
  (* the new object *)
  eapply (new_off_step tbls (eq top) aml_pOpIntResolvedNamePath _ 1 _ s g s1);
    [exact H1|exact I1|exact F1|exact A1'|apply (newokb_sound aml_pOpIntResolvedNamePath eq_refl)| |].
  { unfold lp in *. unfold s1. pcbn. lia. }
  intros p t2 g2 po s3 H3 I3 Hext2 Hfresh2 Hlive2 Hroot2 Hkids2 Hks2 Hlv2 Hpo Hp3 Hpop _ _ F3 A3.
  wwrfI tbls I3 H3 Hlive2. intros o4 Hg4 Hlo4 H4 I4.
  match type of H4 with FIm true ?st _ => set (s4 := st) in * end.
  assert (F4 : Fr NoP (eq top) NoP s g s4 g2) by (apply Fr_tset_fresh; [exact F3|exact Hfresh2]).
  assert (A4 : at_ s s4 1 1) by (apply at_tset; exact A3).
  assert (Est4 : p_scopeStack s4 = top :: rest) by exact Est.
  assert (Htop2 : glive g2 top) by (apply (ge_live _ _ Hext2); exact Htop).
  wbi tbls I4. eapply wp_scopeCurrent; [exact Est4|]. intros _.
  rewrite (FI_ObjectAt _ _ _ H4 Htop2).
  assert (Hp4 : exists po4, tget (p_tree s4) p = Some po4 /\ o_opcode po4 = aml_pOpIntResolvedNamePath).
  { unfold s4, s3. pcbn. rewrite !get_tset, !N.eqb_refl. assert (Hy : tget t2 p = Some po) by exact Hpo.
    rewrite Hy. cbn [option_map]. eexists. split; [reflexivity|]. cbn [o_opcode set_value set_amlOffset]. exact Hpop. }
  destruct Hp4 as (po4 & Hpo4 & Eop4).
  wbi tbls I4. eapply (append_new_step top p po4 1 s g s4 g2); [exact HR|exact HTM|exact Hnnp|exact Htop|exact H0|exact H4|exact Hext2|
    exact Hfresh2|exact Hlive2|exact Hroot2|exact Hkids2|exact Hks2|exact Hlv2|exact Hpo4|exact F4|exact A4|].
  intros t5 g5 s5 H5 Hext5 Hpf5 F5 A5 Hktop5 _ Hlive5 _ _ (po5 & Hpo5 & Eop5 & _) HTMp5 _ I5.
  pose proof (at_Psi _ _ _ _ A5) as P5. rewrite Eop4 in Eop5.
  cbn [need]. wbi tbls I5. apply wp_ret. intros _.
  assert (Hlt5 : glive g5 target) by (apply glive_append; apply (ge_live _ _ Hext2); exact Hlt).
  destruct (FI_live_get _ _ _ H5 Hlt5) as (tgo5 & Htgo5 & Hltgo5).
  wbi tbls I5. apply wp_rdf. exists tgo5. split; [exact Htgo5|]. intros _.
  (* the object at [p]: its opcode is not Method *)
  assert (HTM5 : TM NoX s5 g5).
  { apply (TM_weaken (eq p) NoX s5 g5); [|exact HTMp5]. intros m mo Hm Hmop <-.
    assert (po5 = mo) by congruence. subst. rewrite Hmop in Eop5. discriminate. }
  assert (Est5 : p_scopeStack s5 = top :: rest) by exact Est.
  destruct (negb (o_opcode tgo5 =? aml_pOpMethod)) eqn:Enm.
  { apply wp_ret. exists g5. split; [exact H5|]. split; [eapply at_ExtD; [exact A5|exact Hext5]|]. split; [exact F5|].
    split; [lia|]. split; [discriminate|]. intros _. split; [lia|]. split; [exact HTM5|]. split; [exact (eq_trans Est5 (eq_sym Est))|].
    exists p. split; [exact Hktop5|exact Hfresh2]. }
  apply negb_false_iff in Enm. apply N.eqb_eq in Enm.
  (* a method call *)
  wwrfI tbls I5 H5 Hlive5. intros o6 Hg6 Hlo6 H6 I6.
  match type of H6 with FIm true ?st _ => set (s6 := st) in * end.
  assert (F6 : Fr NoP (eq top) NoP s g s6 g5) by (apply Fr_tset_fresh; [exact F5|exact Hfresh2]).
  assert (A6 : at_ s s6 1 1) by (apply at_tset; exact A5).
  destruct (nk_info _ (newokb_sound aml_pOpIntMethodCall eq_refl)) as (idx & Hidx & Hinf).
  wbi tbls I6. eapply wp_tableIndex; [exact Hidx|]. intros _.
  wwrfI tbls I6 H6 Hlive5. intros o7 Hg7 Hlo7 H7 I7.
  match type of H7 with FIm true ?st _ => set (s7 := st) in * end.
  assert (F7 : Fr NoP (eq top) NoP s g s7 g5) by (apply Fr_tset_fresh; [exact F6|exact Hfresh2]).
  assert (A7 : at_ s s7 1 1) by (apply at_tset; exact A6).
  pose proof (at_Psi _ _ _ _ A7) as P7.
  destruct (FI_live_get _ _ _ H7 Hlive5) as (po7 & Hpo7 & _).
  wbi tbls I7. apply wp_rdf. exists po7. split; [exact Hpo7|]. intros _. rewrite (R_index _ _ (fi_R _ _ H7) _ _ Hpo7).
  wbi tbls I7. apply wp_scopeEnter. intros I8.
  set (s8 := with_scopeStack s7 (p :: p_scopeStack s7)) in *.
  assert (Est7 : p_scopeStack s7 = top :: rest) by exact Est.
  assert (Est8 : p_scopeStack s8 = p :: top :: rest) by (unfold s8; pcbn; rewrite Est7; reflexivity).
  assert (H8 : FD s8 g5).
  { apply FI_with_scope; [exact H7|]. constructor; [exact Hlive5|]. apply (fi_scopes _ _ H7). }
  assert (F8 : Fr NoP (eq top) NoP s g s8 g5) by (eapply Fr_tree_eq; [exact F7|reflexivity]).
  (* the object at [p] is a method call now *)
  assert (Hp8 : exists po8, tget (p_tree s8) p = Some po8 /\ o_opcode po8 = aml_pOpIntMethodCall).
  { unfold s8, s7, s6. pcbn. rewrite !get_tset, !N.eqb_refl. rewrite Hpo5. cbn [option_map].
    eexists. split; [reflexivity|]. reflexivity. }
  assert (Htg8 : tget (p_tree s8) target = Some tgo5).
  { unfold s8, s7, s6. pcbn. rewrite !get_tset.
    assert (Hne : (target =? p) = false) by (apply N.eqb_neq; intros E; apply Hfresh2; rewrite <- E; exact Hlt). rewrite !Hne. exact Htgo5. }
  assert (HTM8 : TM NoX s8 g5).
  { eapply (TM_frame2 NoX NoX NoP (eq top) NoP s g s8 g5 Hwf HR HTM F8); try (intros; contradiction); try apply Eok_NoP; [intros i <-; exact Hnnp|].
    intros m mo Hm Hmop Hnl. exfalso.
    assert (Hl5m : glive g5 m) by (apply (R_live_glive _ _ (fi_R _ _ H8)); exists mo; split; [exact Hm|rewrite Hmop; discriminate]).
    apply glive_append in Hl5m. destruct (Hlv2 m Hl5m) as [F|F]; [contradiction|]. subst m.
    destruct Hp8 as (po8 & Hpo8 & Eop8). assert (po8 = mo) by congruence. subst. rewrite Hmop in Eop8. discriminate. }
  destruct (HTM8 target tgo5 Htg8 Enm (fun F => F)) as (a0 & a1 & rest' & a0o & a1o & vv & Hk8 & _ & _ & Ha1 & Hv & _).
  wbi tbls I8.
  { unfold methodArgCountPanic.
    apply wp_bind. eapply wp_tq.
    { apply (ArgAt_spec _ _ (fi_R _ _ H8) target 1). apply (R_live_glive _ _ (fi_R _ _ H8)). exact Hlt5. }
    rewrite Hk8. change (N.to_nat 1) with 1%nat. cbn [nth_error need].
    apply wp_bind. apply wp_ret.
    apply wp_bind. apply wp_rdo. exists a1o. split; [exact Ha1|]. rewrite Hv. apply wp_ret.
    intros _.
    (* the arguments of the call *)
    assert (H05 : glive g5 0) by (apply glive_append; apply (ge_live _ _ Hext2); exact H0).
    assert (Hroom8 : roomD 0 s8).
    { assert (EP : Psi s8 = Psi s7) by reflexivity. unfold roomD in *. lia. }
    assert (Hnnp8 : notnp s8 p).
    { intros co Hco. unfold s8, s7, s6 in Hco. pcbn_in Hco. rewrite !get_tset, !N.eqb_refl in Hco. rewrite Hpo5 in Hco.
      cbn [option_map] in Hco. inversion Hco. cbn [o_infoIndex set_infoIndex set_opcode]. intros E. rewrite E in Hidx. vm_compute in Hidx. discriminate. }
    wbi tbls I8. eapply wp_weaken; [apply (IHc (N.to_nat (N.land vv 7)) s8 g5 p (top :: rest) H8 I8 H05 Est8 Hroom8 HTM8 Hnnp8)| |].
    { auto. }
    intros ok2 s9 (g9 & H9 & X9 & Fr9 & Psi9 & Hok9) I9.
    destruct (xd_scopes _ _ _ _ X9) as (extra & Es9). rewrite Est8 in Es9.
    destruct (stack_after_call p (top :: rest) extra _ Es9) as (x9 & st9 & Es9' & e2 & Est9 & He2').
    assert (He2 : ok2 = true -> e2 = []) by (intros Eok; apply He2'; destruct (Hok9 Eok) as (_ & _ & E); rewrite E; exact Est8).
    wbi tbls I9. eapply wp_scopeExit; [exact Es9'|]. intros I10.
    set (s10 := with_scopeStack s9 st9) in *.
    assert (H10 : FD s10 g9).
    { apply FI_with_scope; [exact H9|]. pose proof (fi_scopes _ _ H9) as Fs. rewrite Es9' in Fs. inversion Fs; auto. }
    apply wp_ret. exists g9. split; [exact H10|].
    assert (Hext9 : gext g g9) by (eapply gext_trans; [exact Hext5|apply (xd_g _ _ _ _ X9)]).
    split.
    { constructor; [exact Hext9| | |].
      - change (r_len (p_r s10)) with (r_len (p_r s9)). rewrite (xd_len _ _ _ _ X9). destruct A7 as (L & _). exact L.
      - change (r_offset (p_r s10)) with (r_offset (p_r s9)). pose proof (xd_off _ _ _ _ X9) as O9. destruct A7 as (_ & O7 & _).
        change (r_offset (p_r s8)) with (r_offset (p_r s7)) in O9. lia.
      - exists e2. unfold s10. pcbn. rewrite Est, Est9. reflexivity. }
    split.
    { apply (Fr_tree_eq NoP (eq top) NoP s g s9 g9 s10); [|reflexivity]. eapply Fr_trans; [exact F8|exact Fr9| | | |].
      - intros y Hy. apply glive_append. apply (ge_live _ _ Hext2). exact Hy.
      - intros i _ [].
      - intros y Hy E. subst y. contradiction.
      - intros y _ []. }
    assert (EP10 : Psi s10 = Psi s9) by reflexivity. assert (EP8 : Psi s8 = Psi s7) by reflexivity.
    split; [lia|]. split; [destruct ok2; discriminate|]. intros Eok. destruct ok2; [|discriminate]. destruct (Hok9 eq_refl) as (K1 & K2 & K3).
    split; [lia|]. split; [eapply TM_tree_eq; [exact K2|reflexivity]|].
    split; [unfold s10; pcbn; rewrite Est, Est9, (He2 eq_refl); reflexivity|].
    exists p. split; [|exact Hfresh2].
    destruct (fr_kids _ _ _ _ _ _ _ Fr9 top) as (_ & Hex); [apply glive_append; exact Htop2|intros []|].
    rewrite Hex; [exact Hktop5|]. intros E. subst top. contradiction. }
Qed.
End StepN.
