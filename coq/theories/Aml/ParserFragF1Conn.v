(** C11 (fragments F1 .. F8): connectNamedObjArgs turns the first-pass tree [lay1] into [lay2]
    (names set, the value of every Name moved below it).
    The proof over all items is ParserFragF9Conn.v, exported from here; its results are read over the items of
    ParserFragF1.v through [emb]. *)
From Coq Require Import NArith ZArith Arith List Bool Lia.
From FF Require Import Lib.Word Gen.Consts_device_acpi_aml Aml.Stream Aml.Lex Aml.Tree Aml.TreeSpec Aml.Parser Aml.Grammar
  Aml.ParserTotalBase Aml.ParserFragBase Aml.ParserFragFirst Aml.ParserFragRose Aml.ParserFragDev Aml.ParserFragArgs.
From FF Require Export Aml.ParserFragF9Conn.
From FF Require Import Aml.ParserFragF1 Aml.ParserFragF1First.
Import ListNotations.
Local Open Scope N_scope.

(** children contributed to the enclosing scope after the first pass / fuel of the pass *)
Fixpoint clen (l : list item) : nat :=
  match l with [] => O | IName _ :: t => S (S (clen t)) | IBlk _ _ _ _ _ :: t => S (clen t)
               | ILeaf _ _ _ ta :: t => S (length ta + clen t) | IPkg _ _ _ _ :: t => S (S (clen t)) end.

Fixpoint cfuel_item (it : item) : nat :=
  match it with IName _ => 2%nat
              | IBlk bk _ _ fa body => (6 + length (bfx bk fa) + fold_right (fun x n => (cfuel_item x + n)%nat) O body)%nat
              | ILeaf lk _ fa ta => (8 + length (lfx lk fa) + 2 * length ta)%nat
              | IPkg _ _ _ elems => (16 + 3 * pels_sz elems)%nat end.
Definition cfuel (l : list item) : nat := fold_right (fun x n => (cfuel_item x + n)%nat) O l.

Lemma clen_emb l : ParserFragF9Conn.clen (map emb l) = clen l.
Proof. induction l as [|[d|bk k seg fa body|lk seg fa ta|seg k n elems] t IH]; cbn [map emb ParserFragF9Conn.clen clen]; rewrite ?map_length, ?IH; reflexivity. Qed.
Lemma cfuel_item_emb it : ParserFragF9Conn.cfuel_item (emb it) = cfuel_item it.
Proof.
  induction it as [d|bk k seg fa body IH|lk seg fa ta|seg k n elems] using item_ind'; cbn [emb ParserFragF9Conn.cfuel_item cfuel_item];
    rewrite ?(sum_emb _ _ _ _ IH), ?map_length, ?pels_sz_emb; reflexivity.
Qed.
Lemma cfuel_emb l : ParserFragF9Conn.cfuel (map emb l) = cfuel l.
Proof. apply sum_emb, all_Forall, cfuel_item_emb. Qed.

Lemma clen_le_cfuel l : (clen l <= cfuel l)%nat.
Proof. rewrite <- clen_emb, <- cfuel_emb. apply ParserFragF9Conn.clen_le_cfuel. Qed.

Lemma lay2_nodes h tbl : forall l b off x, In x (rnodesl (lay2 h tbl b off l)) -> b <= x < b + N.of_nat (iszs l).
Proof. intros l b off x. rewrite <- lay2_emb, <- iszs_emb. apply ParserFragF9Conn.lay2_nodes. Qed.

Lemma last_seqN b n : last (seqN b (S n)) InvalidIndex = b + N.of_nat n.
Proof. exact (ParserFragF9Conn.last_seqN b n). Qed.

Section ConnSpec.
Variable h tbl : N.
Variable tbls : list (list N).
Variable data : list N.
Hypothesis Hnth : nth_error tbls (N.to_nat tbl) = Some data.

Definition CSpec (its : list item) : Prop :=
  forall x pre post b off s g pl f ax R dpre dpost (Q : pres -> pstate -> Prop),
  Rep (p_tree s) g pl ->
  kids g x = pre ++ map ridx (lay1 h tbl b off its) ++ post ->
  Forall (Desc g pl) (lay1 h tbl b off its) ->
  pget pl x = Some ax -> y_op ax <> opFreed -> (x < b \/ b + N.of_nat (iszs its) <= x) ->
  p_handle s = h -> p_tables s = tbls -> data = dpre ++ enc_items its ++ dpost -> off = lenN dpre ->
  forallb item_okb its = true ->
  (8 <= R)%nat -> (cfuel its + R <= f)%nat ->
  (forall t' g' pl', Rep t' g' pl' -> Post2 g pl g' pl' x b (iszs its) pre post (lay2 h tbl b off its) ->
     wp False (connectNamed_loop (f - clen its) x (last pre InvalidIndex)) (with_tree s t') Q) ->
  wp False (connectNamed_loop f x (last (pre ++ map ridx (lay1 h tbl b off its)) InvalidIndex)) s Q.

Theorem cspec_all : forall its, CSpec its.
Proof.
  intros its. pose proof (ParserFragF9Conn.cspec_all h tbl tbls data Hnth (map emb its)) as A.
  unfold ParserFragF9Conn.CSpec, CSp in A. rewrite iszs_emb, enc_items_emb, items_okb_emb, cfuel_emb, clen_emb in A.
  intros x pre post b off s g pl f ax R dpre dpost Q H Hk HD Hx Hlx Hrange Hh Htb Hdata Hoff Hok HR Hf K.
  rewrite <- lay1_emb in Hk, HD |- *. eapply A; try eassumption.
  intros t' g' pl' H' P'. rewrite lay2_emb in P'. exact (K t' g' pl' H' P').
Qed.
End ConnSpec.
