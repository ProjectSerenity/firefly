(** A lexer fact - the []byte parseNameString returns, when it is four bytes long, starts with a lead name
    character, a root character or a parent prefix. *)
From Coq Require Import NArith ZArith Arith List Bool Lia.
From Coq Require Import ZifyBool ZifyN ZifyNat.
From FF Require Import Lib.Word Gen.Consts_device_acpi_aml Aml.Stream Aml.Lex Aml.LexProofs Aml.Tree Aml.TreeSpec Aml.ParserTotalLex.
Import ListNotations.
Local Open Scope N_scope.

Ltac Zify.zify_post_hook ::= Z.to_euclidean_division_equations.

Definition goodsl (d : list N) (sl : slice) : Prop :=
  s_len sl = 4 -> exists p b0, s_ptr sl = Some p /\ byte_at d p = Some b0 /\ (is_lead b0 = true \/ b0 = 0x5c \/ b0 = 0x5e).

Lemma goodsl_nil d : goodsl d nil_slice.
Proof. intros E. discriminate. Qed.

Lemma readByte_byte r b r1 : readByte r = Ok (Some b, r1) -> byte_at (r_data r) (r_offset r) = Some b.
Proof. unfold readByte. destruct (eof r); [discriminate|]. destruct (byte_at (r_data r) (r_offset r)); [|discriminate]. intros H; inversion H; reflexivity. Qed.

Lemma adv_data r r1 : adv r r1 -> r_data r1 = r_data r.
Proof. intros ((E & _) & _). exact E. Qed.

(** the prefixes that were skipped start at the first byte *)
Lemma skipPrefix_go_first fuel : forall r ok r1, rok r -> skipPrefix_go fuel r = Ok (ok, r1) ->
  r_offset r1 = r_offset r \/ (r_offset r < r_offset r1 /\ exists b, byte_at (r_data r) (r_offset r) = Some b /\ (b = 0x5c \/ b = 0x5e)).
Proof.
  induction fuel as [|fuel IH]; intros r ok r1 H E; cbn [skipPrefix_go] in E; [discriminate|].
  unfold peekByte in E. destruct (eof r) eqn:Ee; cbn [bind] in E.
  - inversion E; subst. left. reflexivity.
  - destruct (byte_at (r_data r) (r_offset r)) as [b|] eqn:Eb; cbn [bind] in E; [|discriminate].
    destruct ((b =? 0x5c) || (b =? 0x5e)) eqn:Ep.
    + destruct (rd1 r H) as [(R & Hge)|(b' & R & Lt & Hb & A)].
      * unfold eof in Ee. apply N.leb_gt in Ee. lia.
      * rewrite R in E. cbn [bind] in E. destruct (skipPrefix_go_adv _ _ _ _ (rok_adv _ _ H A) E) as (A1 & _).
        right. split.
        -- destruct A1 as (_ & L & _). cbn [r_offset set_offset_raw] in L. lia.
        -- exists b. split; [reflexivity|]. apply orb_prop in Ep. destruct Ep as [Ep|Ep]; apply N.eqb_eq in Ep; auto.
    + inversion E; subst. left. reflexivity.
Qed.

Lemma lead_of_guard b : ((b <? 0x41) || (0x5a <? b)) && negb (b =? 0x5f) = false -> is_lead b = true.
Proof.
  unfold is_lead. intros H. destruct (N.eqb_spec b 0x5f) as [E|E]; [reflexivity|]. cbn [negb] in H. rewrite andb_true_r in H.
  apply orb_false_elim in H. destruct H as (H1 & H2). apply N.ltb_ge in H1. apply N.ltb_ge in H2. cbn [orb].
  apply andb_true_intro. split; apply N.leb_le; lia.
Qed.

Lemma parseNameString_good r s ok r1 : rok r -> parseNameString r = Ok (s, ok, r1) -> goodsl (r_data r) s.
Proof.
  intros H E. pose proof H as (W & S & O). unfold parseNameString in E.
  destruct (dataPtr r) as [ptr| |] eqn:Eptr; cbn [bind] in E; try discriminate.
  destruct (skipPrefix_go (stream_fuel r) r) as [[ok1 r2]| |] eqn:ESK; try discriminate. cbn [bind] in E.
  destruct (skipPrefix_go_adv _ _ _ _ H ESK) as (A1 & Hok).
  pose proof (skipPrefix_go_first _ _ _ _ H ESK) as Hfirst.
  assert (H2 : rok r2) by (eapply rok_adv; eauto).
  destruct ok1; cbn [negb] in E.
  2:{ inversion E; subst. apply goodsl_nil. }
  specialize (Hok eq_refl).
  assert (L02 : r_offset r <= r_offset r2) by (destruct A1 as (_ & L & _); exact L).
  assert (Hptr : ptr = Some (r_offset r)).
  { unfold dataPtr in Eptr. destruct (eof r) eqn:Ee.
    - exfalso. unfold eof in Ee. apply N.leb_le in Ee. destruct A1 as ((_ & _ & Epk) & _ & _). rewrite Epk in Hok. lia.
    - destruct (r_offset r <? r_len r); [inversion Eptr; reflexivity|discriminate]. }
  destruct (rd1 r2 H2) as [(R & Hge)|(b & R & Lt & Hb & A2)]; rewrite R in E; cbn [bind] in E; [lia|].
  pose proof (readByte_byte _ _ _ R) as Hbyte. rewrite (adv_data _ _ A1) in Hbyte.
  set (r3 := set_offset_raw r2 (r_offset r2 + 1)) in *.
  assert (A03 : adv r r3) by (eapply adv_trans; eauto).
  assert (H3 : rok r3) by (eapply rok_adv; eauto).
  assert (O3 : r_offset r3 = r_offset r2 + 1) by reflexivity.
  assert (P3 : r_pkgEnd r3 <= r_len r3) by (destruct H3 as ((_ & P & _) & _); exact P).
  assert (B3 : r_len r3 + 0x10000400 <= two32) by (destruct H3 as (_ & P & _); exact P).
  assert (O3' : r_offset r3 <= r_len r3) by (destruct H3 as (_ & _ & P); exact P).
  (* the first byte when a prefix was skipped *)
  assert (Hpre : r_offset r < r_offset r2 -> exists b0, byte_at (r_data r) (r_offset r) = Some b0 /\ (is_lead b0 = true \/ b0 = 0x5c \/ b0 = 0x5e)).
  { intros Hlt. destruct Hfirst as [F|(_ & b0 & Hb0 & Hc)]; [lia|]. exists b0. split; [exact Hb0|right; exact Hc]. }
  destruct (b =? 0).
  { inversion E; subst. intros Hlen. cbn [s_len s_ptr] in *. exists (r_offset r).
    assert (Hlt : r_offset r < r_offset r2) by (unfold w32, two32 in *; lia).
    destruct (Hpre Hlt) as (b0 & Hb0 & Hc). exists b0. auto. }
  destruct (b =? 0x2e).
  { destruct (r_pkgEnd r3 <? w32 (r_offset r3 + w32 (aml_amlNameLen * 2))) eqn:EE.
    - inversion E; subst. apply goodsl_nil.
    - apply N.ltb_ge in EE.
      assert (Ew : w32 (r_offset r3 + w32 (aml_amlNameLen * 2)) = r_offset r3 + 8).
      { unfold w32, aml_amlNameLen, two32 in *. lia. }
      rewrite Ew in *. destruct (setOffset_adv r3 (r_offset r3 + 8) H3) as (A4 & E4); [lia|lia|].
      set (r5 := setOffset r3 (r_offset r3 + 8)) in *. clearbody r5.
      inversion E; subst. intros Hlen. cbn [s_len] in Hlen. exfalso. rewrite E4 in Hlen. unfold w32, two32 in *. lia. }
  destruct (b =? 0x2f).
  { destruct (rd1 r3 H3) as [(R' & Hge')|(sc & R' & Lt' & Hsc & A4)]; rewrite R' in E; cbn [bind] in E.
    { inversion E; subst. apply goodsl_nil. }
    set (r4 := set_offset_raw r3 (r_offset r3 + 1)) in *.
    assert (H4 : rok r4) by (eapply rok_adv; eauto).
    destruct (sc =? 0). { inversion E; subst. apply goodsl_nil. }
    assert (Hx : w8 (sc * aml_amlNameLen) < 256) by (unfold w8, two8; apply N.mod_lt; discriminate).
    assert (Hx4 : w8 (sc * aml_amlNameLen) mod 4 = 0) by (unfold w8, two8, aml_amlNameLen; lia).
    remember (w8 (sc * aml_amlNameLen)) as x eqn:Ex. clear Ex.
    assert (O4 : r_offset r4 <= r_len r4) by (destruct H4 as (_ & _ & P); exact P).
    assert (B4 : r_len r4 + 0x10000400 <= two32) by (destruct H4 as (_ & P & _); exact P).
    assert (Ew : w32 (r_offset r4 + x) = r_offset r4 + x) by (unfold w32, two32 in *; apply N.mod_small; lia).
    rewrite Ew in E.
    destruct (r_pkgEnd r4 <? r_offset r4 + x) eqn:EE.
    - inversion E; subst. apply goodsl_nil.
    - apply N.ltb_ge in EE. destruct (setOffset_adv r4 (r_offset r4 + x) H4) as (A5 & E5); [lia|lia|].
      assert (O4' : r_offset r4 = r_offset r3 + 1) by reflexivity.
      set (r5 := setOffset r4 (r_offset r4 + x)) in *. clearbody r5.
      inversion E; subst. intros Hlen. cbn [s_len s_ptr] in *. rewrite E5 in Hlen. exists (r_offset r).
      assert (Hlt : r_offset r < r_offset r2) by (unfold w32, two32 in *; lia).
      destruct (Hpre Hlt) as (b0 & Hb0 & Hc). exists b0. auto. }
  destruct (((b <? 0x41) || (0x5a <? b)) && negb (b =? 0x5f)) eqn:Eg. { inversion E; subst. apply goodsl_nil. }
  destruct (r_pkgEnd r3 <? w32 (r_offset r3 + w32 (aml_amlNameLen - 1))) eqn:EE.
  - inversion E; subst. apply goodsl_nil.
  - apply N.ltb_ge in EE.
    assert (Ew : w32 (r_offset r3 + w32 (aml_amlNameLen - 1)) = r_offset r3 + 3).
    { unfold w32, aml_amlNameLen, two32 in *. lia. }
    rewrite Ew in *. destruct (setOffset_adv r3 (r_offset r3 + 3) H3) as (A4 & E4); [lia|lia|].
    set (r5 := setOffset r3 (r_offset r3 + 3)) in *. clearbody r5.
    inversion E; subst. intros Hlen. cbn [s_len s_ptr] in *. rewrite E4 in Hlen. exists (r_offset r).
    assert (Heq : r_offset r2 = r_offset r) by (unfold w32, two32 in *; lia).
    rewrite Heq in Hbyte. exists b. split; [reflexivity|]. split; [exact Hbyte|left; apply lead_of_guard; exact Eg].
Qed.
