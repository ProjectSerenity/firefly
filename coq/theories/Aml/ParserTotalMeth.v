(** A witness state for the theorems that each of the last two passes of ParseAML (resolveMethodCalls,
    connectNonNamedObjArgs) keeps the concrete typing [TM3] of Method objects (ParserTotalShape.v): a pool with a root scope and one Method. *)
From Coq Require Import NArith Arith List Bool Lia.
From Coq Require Import ZifyBool ZifyN ZifyNat.
From FF Require Import Lib.Word Gen.Consts_device_acpi_aml Gen.Consts_aml_tree Aml.Stream Aml.Lex Aml.LexProofs
  Aml.Tree Aml.Parser Aml.ParserProofs Aml.TreeSpec Aml.TreeProofs Aml.TreeProofsOps Aml.TreeProofsFind Aml.TreeProofsAnc
  Aml.ParserTotalTree Aml.ParserTotalTree2 Aml.ParserTotalLex Aml.ParserTotalTable Aml.ParserTotalBase Aml.ParserTotalLeaf
  Aml.ParserTotalFrame Aml.ParserTotalFirst Aml.ParserTotalConn Aml.ParserTotalNonNamed Aml.ParserTotalCalls Aml.ParserTotalReloc
  Aml.ParserTotalMerge Aml.ParserTotalResolve Aml.ParserTotalDefer Aml.ParserTotalDeferW Aml.ParserTotalDeferV
  Aml.ParserTotalTyped Aml.ParserTotalShape Aml.ParserTotalChain Aml.ParserTotalConn2 Aml.ParserTotalPass2
  Aml.ParserTotalBenign Aml.ParserTotalFirst2 Aml.ParserTotalNameLex Aml.ParserTotalGoodPath Aml.ParserTotalPass1 Aml.ParserTotalHandle Aml.ParserTotalLoad.
Import ListNotations.
Local Open Scope N_scope.


(** ---- the hypotheses are satisfiable: a pool with a root scope and one Method (name path, flags byte); both passes return ok ---- *)
Definition mx_ops : list op :=
  [ OpNewNamed opScopeBlock 0 (name_of_list [0x5c; 0; 0; 0]);
    OpNew aml_pOpMethod 0; OpAppend 0 1;
    OpNew aml_pOpIntNamePath 0; OpAppend 1 2;
    OpNew aml_pOpBytePrefix 0; OpAppend 1 3 ].
Definition mx_tree0 : T := match run (@NewObjectTree value) mx_ops with Ok t => t | _ => NewObjectTree end.
Definition mx_tree : T := Eval vm_compute in tset mx_tree0 3 (set_value (Some (VNum 0))).
Definition mx_ghost : ghost := Eval vm_compute in arun ghost0 mx_ops.
Definition mx_state : pstate := mkP (init_reader [] 0) mx_tree [] [] 0 0 0 0 false 1 [].

Lemma mx_legal : legal_seq ghost0 mx_ops.
Proof.
  unfold mx_ops. cbn [legal_seq legal].
  split; [ds_new|]. split; [ds_new|]. split; [ds_app|]. split; [ds_new|]. split; [ds_app|]. split; [ds_new|]. split; [ds_app|]. exact I.
Qed.

Lemma mx_R : R mx_tree mx_ghost.
Proof.
  destruct (run_R mx_ops (@NewObjectTree value) ghost0 R_empty mx_legal) as (t' & Hrun & HR').
  change mx_tree with (tset mx_tree0 3 (set_value (Some (VNum 0)))). change mx_ghost with (arun ghost0 mx_ops).
  apply R_tset_lk; [unfold mx_tree0; rewrite Hrun; exact HR'|].
  intros o _. unfold lk_eq. cbn [o_opcode o_index o_parent o_prev o_next o_first o_last set_value]. repeat split; auto.
Qed.

Ltac mx_cases n Hn o tac :=
  do 4 (destruct n as [|n]; [vm_compute in Hn; inversion Hn; subst o; clear Hn; solve [tac]|]); vm_compute in Hn; destruct n; discriminate.

Lemma mx_hyps :
  R (p_tree mx_state) mx_ghost /\ info_valid (p_tree mx_state) /\ pool_ok (p_tables mx_state) (p_tree mx_state) /\ typed (p_tree mx_state) /\
  glive mx_ghost 0 /\ groot mx_ghost 0 /\ TM3 (p_tree mx_state) mx_ghost /\
  (exists m mo, tget (p_tree mx_state) m = Some mo /\ o_opcode mo = aml_pOpMethod) /\
  match resolveMethodCalls 10 0 mx_state with Ok (r, _) => r = ROk | _ => False end /\
  match connectNonNamedObjArgs 10 0 mx_state with Ok (r, _) => r = ROk | _ => False end.
Proof.
  change (p_tree mx_state) with mx_tree. change (p_tables mx_state) with (@nil (list N)).
  split; [exact mx_R|].
  split; [unfold info_valid; apply (pool_cases mx_tree (fun i o => o_opcode o <> opFreed -> opInfo (o_infoIndex o) <> None)); intros n o Hn _;
          mx_cases n Hn o ltac:(vm_compute; discriminate)|].
  split.
  { unfold pool_ok. rewrite Forall_forall. intros o Hin. destruct (In_nth_error _ _ Hin) as (n & Hn). mx_cases n Hn o ltac:(exact I). }
  split; [unfold typed; apply (pool_cases mx_tree (fun i o => o_opcode o <> opFreed -> o_opcode o = aml_pOpIntNamePathOrMethodCall -> exists tbl sl, o_value o = Some (VBytes tbl sl)));
          intros n o Hn _ Hop; mx_cases n Hn o ltac:(vm_compute in Hop; discriminate)|].
  split; [split; [vm_compute; reflexivity|vm_compute; intuition discriminate]|].
  split; [apply groot_chk; vm_compute; reflexivity|].
  split.
  { unfold TM3. apply (pool_cases mx_tree (fun m mo => o_opcode mo = aml_pOpMethod -> mtyped3 mx_tree mx_ghost m)). intros n o Hn Hop.
    destruct n as [|n]; [vm_compute in Hn; inversion Hn; subst o; vm_compute in Hop; discriminate|].
    destruct n as [|n].
    - eexists 2, 3, [], _, _, 0. split; [vm_compute; reflexivity|]. split; [vm_compute; reflexivity|].
      split; [vm_compute; reflexivity|]. split; [vm_compute; reflexivity|]. split; [vm_compute; reflexivity|].
      split; [vm_compute; reflexivity|]. split; [vm_compute; reflexivity|]. split; vm_compute; reflexivity.
    - do 2 (destruct n as [|n]; [vm_compute in Hn; inversion Hn; subst o; vm_compute in Hop; discriminate|]). vm_compute in Hn. destruct n; discriminate. }
  split; [eexists 1, _; split; vm_compute; reflexivity|].
  split; vm_compute; reflexivity.
Qed.
