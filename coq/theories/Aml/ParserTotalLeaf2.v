(** ParseFieldElements never panics, keeps the invariant and pays for the objects it creates; the field list
    of an object that is the LAST child of its parent only appends NamedFields to the parent and Connections to the object;
    nothing that was live is rewritten. *)
From Coq Require Import NArith Arith List Bool Lia.
From Coq Require Import ZifyBool ZifyN ZifyNat.
From FF Require Import Lib.Word Gen.Consts_device_acpi_aml Gen.Consts_aml_tree Aml.Stream Aml.Lex Aml.LexProofs
  Aml.Tree Aml.TreeSpec Aml.TreeProofs Aml.TreeProofsOps Aml.Parser
  Aml.ParserTotalTree Aml.ParserTotalLex Aml.ParserTotalTable Aml.ParserTotalRuns Aml.ParserTotalBase Aml.ParserTotalLeaf Aml.ParserTotalFrame.
Import ListNotations.
Local Open Scope N_scope.

(** the small leaf functions, with what they leave alone *)
Lemma fieldByte_spec2 {md} P s g : FIm md s g ->
  wp P fieldByte s (fun a s' => FIm md s' g /\ at_ s s' 0 0 /\ p_tree s' = p_tree s).
Proof.
  intros H. eapply wp_weaken; [apply (wp_and_pc P _ s _ (fun _ s' => p_tree s' = p_tree s) (fieldByte_spec P s g H))|auto|].
  - intros a s' E. exact (fieldByte_notree _ _ _ E).
  - intros a s' ((A & B) & C). auto.
Qed.

Lemma dl_block_spec2 {md} P origOffset pkgLen s g : FIm md s g ->
  wp P (dl_block origOffset pkgLen) s (fun a s' => FIm md s' g /\ at_ s s' 0 0 /\ p_tree s' = p_tree s).
Proof.
  intros H. eapply wp_weaken; [apply (wp_and_pc P _ s _ (fun _ s' => p_tree s' = p_tree s) (dl_block_spec P origOffset pkgLen s g H))|auto|].
  - intros a s' E. exact (dl_block_notree _ _ _ _ _ E).
  - intros a s' ((A & B) & C). auto.
Qed.

Lemma readName_go_ik field cnt : forall i s a s', readName_go cnt i field s = Ok (a, s') ->
  forall o, tget (p_tree s) field = Some o -> exists o', tget (p_tree s') field = Some o' /\ o_infoIndex o' = o_infoIndex o.
Proof.
  induction cnt as [|cnt IH]; intros i s a s' H o Ho; cbn [readName_go] in H.
  - inversion H; subst. eauto.
  - apply bindM_ok in H. destruct H as (b & s1 & E1 & H). rewrite <- (proj1 (inert_readByteM _ _ _ E1)) in Ho.
    apply bindM_ok in H. destruct H as (nm & s2 & E2 & H). rewrite <- (proj1 (inert_tq _ _ _ _ E2)) in Ho.
    assert (W : forall v s3 u, wrf field (set_name v) s2 = Ok (u, s3) ->
              exists o3, tget (p_tree s3) field = Some o3 /\ o_infoIndex o3 = o_infoIndex o).
    { intros v s3 u E. unfold wrf, tu in E. destruct (wr (p_tree s2) field (set_name v)) as [t'| |] eqn:Ew; try discriminate.
      inversion E; subst. destruct (wr_inv _ _ _ _ Ew) as (-> & _). cbn [p_tree with_tree]. rewrite get_tset, N.eqb_refl, Ho.
      cbn [option_map]. eexists. split; [reflexivity|reflexivity]. }
    destruct b as [b|]; apply bindM_ok in H; destruct H as (u & s3 & E3 & H); destruct (W _ _ _ E3) as (o3 & Ho3 & Ei).
    + destruct (IH _ _ _ _ H o3 Ho3) as (o' & Ho' & E'). exists o'. split; [exact Ho'|congruence].
    + inversion H; subst. eauto.
Qed.

Lemma readName_go_spec2 {md} P field cnt i s g : FIm md s g -> glive g field ->
  wp P (readName_go cnt i field) s (fun ok s' => FIm md s' g /\ at_ s s' 0 0 /\
     (forall j, j <> field -> tget (p_tree s') j = tget (p_tree s) j) /\
     (forall o, tget (p_tree s) field = Some o -> exists o', tget (p_tree s') field = Some o' /\ o_infoIndex o' = o_infoIndex o)).
Proof.
  intros H Hl. eapply wp_weaken; [apply (wp_and_pc P _ s _ (fun _ s' => (forall j, j <> field -> tget (p_tree s') j = tget (p_tree s) j) /\
     (forall o, tget (p_tree s) field = Some o -> exists o', tget (p_tree s') field = Some o' /\ o_infoIndex o' = o_infoIndex o))
     (readName_go_spec P field cnt i s g H Hl))|auto|].
  - intros a s' E. split; [intros j Hj; exact (readName_go_only field cnt i s a s' E j Hj)|exact (readName_go_ik field cnt i s a s' E)].
  - intros a s' ((A & B) & C & D). auto.
Qed.

(** the objects a field list inserts next to its object: new, childless, with the NamedField row *)
Definition nfrow (s : pstate) (x : N) : Prop :=
  exists o, tget (p_tree s) x = Some o /\ opcodeTableIndex aml_pOpIntNamedField true = Some (o_infoIndex o).
Definition sibs (g : ghost) (s' : pstate) (g' : ghost) (new : list N) : Prop :=
  Forall (fun x => ~ glive g x /\ glive g' x /\ kids g' x = [] /\ nfrow s' x) new.
Definition carry (g : ghost) (s1 : pstate) (g1 : ghost) (s2 : pstate) (g2 : ghost) : Prop :=
  forall x, glive g1 x -> ~ glive g x -> kids g1 x = [] -> nfrow s1 x -> glive g2 x /\ kids g2 x = [] /\ nfrow s2 x.

Lemma sibs_nil g s' g' : sibs g s' g' [].
Proof. constructor. Qed.

Lemma sibs_app g s' g' l1 l2 : sibs g s' g' l1 -> sibs g s' g' l2 -> sibs g s' g' (l1 ++ l2).
Proof. intros A B. apply Forall_app. split; assumption. Qed.

Lemma sibs_carry g s1 g1 s2 g2 new : sibs g s1 g1 new -> carry g s1 g1 s2 g2 -> sibs g s2 g2 new.
Proof.
  intros H C. unfold sibs in *. rewrite Forall_forall in *. intros x Hx. destruct (H x Hx) as (A & B & K & F).
  destruct (C x B A K F) as (B' & K' & F'). auto.
Qed.

Lemma sibs_old g0 g s' g' new : sibs g s' g' new -> (forall x, glive g0 x -> glive g x) -> sibs g0 s' g' new.
Proof.
  intros H L. unfold sibs in *. rewrite Forall_forall in *. intros x Hx. destruct (H x Hx) as (A & B). split; [|exact B].
  intros F. apply A. apply L. exact F.
Qed.

Lemma Fr_carry (P X E : N -> Prop) g s1 g1 s2 g2 :
  Fr P X E s1 g1 s2 g2 -> gext g1 g2 -> (forall x, X x -> glive g x) -> (forall y, E y -> kids g1 y <> []) -> carry g s1 g1 s2 g2.
Proof.
  intros [K Fk] G HX HE x Hl Hn Hk (o & Ho & Hrow).
  split; [apply (ge_live _ _ G); exact Hl|]. split.
  - destruct (Fk x Hl) as (_ & Hex); [intros F; apply (HE x F); exact Hk|]. rewrite Hex; [exact Hk|]. intros F. apply Hn. apply HX. exact F.
  - destruct (K x o Hl Ho) as (o' & Ho' & (_ & Ei & _) & _). exists o'. split; [exact Ho'|]. rewrite Ei. exact Hrow.
Qed.

Section Field2.
Variables (md : bool) (curObj par : N) (tl : list N).

(** the object gets Connections appended; nothing is said (in the frame) about the parent, whose list is described explicitly:
    the NamedFields are inserted right after the object, in front of the fixed tail [tl] *)
Definition XC (y : N) : Prop := y = curObj.
Definition EP (y : N) : Prop := y = par.

Definition FPre2 (s : pstate) (g : ghost) (f : fstate) (l1 : list N) : Prop :=
  FIm md s g /\ In curObj (kids g par) /\ kids g par = l1 ++ f_appendAfter f :: tl /\ Phi s + 4 <= InvalidIndex.
Definition FPost2 (s : pstate) (g : ghost) (l1 : list N) (a : N) (res : pres) (s' : pstate) (g' : ghost) : Prop :=
  FPost s res s' /\ Fr NoP XC EP s g s' g' /\ exists new, kids g' par = l1 ++ a :: new ++ tl /\ sibs g s' g' new.
Definition FSpec2 (fuel : nat) : Prop := forall f s g l1, FPre2 s g f l1 ->
  specm md (N.of_nat fuel <= rem s) (fieldElements_go fuel curObj f) s g (fun res s' g' => FPost2 s g l1 (f_appendAfter f) res s' g').

(** the recursive call, after at least one consumed byte and at most four created objects *)
Lemma frec fuel (IH : FSpec2 fuel) f1 s g s1 g1 c l1 a pre new1 :
  FIm md s1 g1 -> at_ s s1 1 c -> c <= 4 -> gext g g1 -> In curObj (kids g1 par) ->
  kids g1 par = pre ++ f_appendAfter f1 :: tl -> pre ++ [f_appendAfter f1] = l1 ++ a :: new1 ->
  Fr NoP XC EP s g s1 g1 ->
  Phi s + 4 <= InvalidIndex -> glive g curObj -> sibs g s1 g1 new1 ->
  wp (N.of_nat (S fuel) <= rem s) (fieldElements_go fuel curObj f1) s1
     (fun res s' => exists g', FIm md s' g' /\ Ext s g s' g' /\ FPost2 s g l1 a res s' g').
Proof.
  intros H1 A1 Hc Hext Hcur Hpos Hpre HF Hroom Hlc Hsib. destruct (at_Phi _ _ _ _ A1) as (P1 & P2).
  eapply wp_weaken; [apply (IH f1 s1 g1 pre)|..].
  - split; [exact H1|]. split; [exact Hcur|]. split; [exact Hpos|]. lia.
  - intros Hf. lia.
  - intros res s' (g' & F1 & F2 & (F3 & F4 & F5 & F6 & F7) & F8 & (new2 & F9 & S9)). exists g'. split; auto. split.
    + eapply Ext_trans; [eapply at_Ext; eauto|exact F2].
    + destruct A1 as (_ & _ & _ & _ & A5 & A6). split; [|split].
      * split; [lia|]. split; [|split; [exact F5|split; congruence]]. intros Hr. specialize (F4 Hr). lia.
      * eapply Fr_trans; [exact HF|exact F8|apply (ge_live _ _ Hext)|auto|auto|auto].
      * exists (new1 ++ new2). split.
        -- rewrite F9.
           change (pre ++ f_appendAfter f1 :: new2 ++ tl) with (pre ++ [f_appendAfter f1] ++ new2 ++ tl).
           rewrite app_assoc, Hpre. rewrite <- app_assoc. cbn [app]. rewrite <- app_assoc. reflexivity.
        -- apply sibs_app.
           ++ eapply sibs_carry; [exact Hsib|]. apply (Fr_carry NoP XC EP g s1 g1 s' g' F8 (ex_g _ _ _ _ F2)).
              ** intros x ->. exact Hlc.
              ** intros y -> E. rewrite E in Hcur. exact Hcur.
           ++ eapply sibs_old; [exact S9|apply (ge_live _ _ Hext)].
Qed.

(** a failing return *)
Lemma ffail (P : Prop) s g s1 g1 k c (res : pres) l1 a :
  FIm md s1 g1 -> at_ s s1 k c -> c <= 2 -> gext g g1 -> Fr NoP XC EP s g s1 g1 ->
  kids g1 par = l1 ++ a :: tl -> res = RFailed ->
  wp P (ret res) s1 (fun res s' => exists g', FIm md s' g' /\ Ext s g s' g' /\ FPost2 s g l1 a res s' g').
Proof.
  intros H1 A1 Hc Hext HF Hk ->. destruct (at_Phi _ _ _ _ A1) as (P1 & P2).
  apply wp_ret. exists g1. split; auto. split; [eapply at_Ext; eauto|]. split; [|split; [exact HF|exists []; split; [exact Hk|apply sibs_nil]]].
  split; [lia|]. split; [discriminate|].
  destruct A1 as (_ & _ & _ & _ & A5 & A6). split; [discriminate|split; assumption].
Qed.

Lemma fbyte (P : Prop) (k : N -> M pres) s g s1 l1 a :
  FIm md s1 g -> at_ s s1 1 0 -> Fr NoP XC EP s g s1 g -> kids g par = l1 ++ a :: tl ->
  (forall x sa, FIm md sa g -> at_ s sa 1 0 -> Fr NoP XC EP s g sa g ->
     wp P (k x) sa (fun res s' => exists g', FIm md s' g' /\ Ext s g s' g' /\ FPost2 s g l1 a res s' g')) ->
  wp P (mlet b <~ fieldByte ;; match b with None => ret RFailed | Some x => k x end) s1
     (fun res s' => exists g', FIm md s' g' /\ Ext s g s' g' /\ FPost2 s g l1 a res s' g').
Proof.
  intros H1 A1 F1 Hk K. apply wp_bind. eapply wp_weaken; [apply (fieldByte_spec2 False s1 g H1)|intros []|]. intros b sa (Ha & Aa & Ta).
  assert (A2 : at_ s sa 1 0) by (eapply at_trans0; eauto).
  assert (Fa : Fr NoP XC EP s g sa g) by (eapply Fr_tree_eq; [exact F1|exact Ta]).
  destruct b as [x|]; [exact (K x sa Ha A2 Fa)|eapply (ffail _ s g _ g _ _ _ l1 a); eauto using gext_refl; lia].
Qed.

Lemma fieldElements_spec2 : forall fuel, FSpec2 fuel.
Proof.
  induction fuel as [|fuel IH]; intros f s g l1 (H & Hcur & Hpos & Hroom); unfold specm; cbn [fieldElements_go].
  { apply wp_outOfFuel. change (0 <= rem s). apply N.le_0_l. }
  assert (Haft : In (f_appendAfter f) (kids g par)) by (rewrite Hpos; apply in_or_app; right; left; reflexivity).
  pose proof (fi_rok _ _ H) as Hrok.
  pose proof (R_gwf _ _ (fi_R _ _ H)) as Hwf.
  destruct (Hwf _ _ Hcur) as (Hlpar & Hlcur).
  assert (Hlp : lp s + 3 < InvalidIndex) by (unfold Phi in Hroom; lia).
  assert (F0 : Fr NoP XC EP s g s g) by apply Fr_refl.
  apply wp_bind, wp_get. destruct (eof (p_r s)) eqn:Ee.
  { apply wp_ret. exists g. split; auto. split; [apply Ext_refl|]. split; [|split; [exact F0|exists []; split; [exact Hpos|apply sibs_nil]]].
    split; [lia|]. split; [lia|]. split; [discriminate|split; reflexivity]. }
  apply wp_bind. apply wp_readByte; auto. intros nx r1 Hadv Hn Hs.
  destruct nx as [next|].
  2:{ exfalso. destruct (Hn eq_refl) as (_ & Hge). unfold eof in Ee. apply N.leb_gt in Ee. lia. }
  destruct (Hs _ eq_refl) as (Ho1 & Hb & Hlt). clear Hn Hs.
  set (s1 := with_r s r1).
  assert (H1 : FIm md s1 g) by (apply FI_adv; auto).
  assert (F1 : Fr NoP XC EP s g s1 g) by (eapply Fr_tree_eq; [exact F0|reflexivity]).
  assert (A1 : at_ s s1 1 0).
  { replace 1 with (0 + 1) by reflexivity. apply at_adv; [apply at_refl; auto|exact Hadv|lia]. }
  destruct (next =? 0) eqn:E0.
  { (* reserved field *)
    apply wp_bind. apply wp_pkglen; [apply (fi_rok _ _ H1)|]. intros v ok r2 Hadv2 Hok Hnok.
    assert (H2 : FIm md (with_r s1 r2) g) by (apply FI_adv; auto).
    assert (F2 : Fr NoP XC EP s g (with_r s1 r2) g) by (eapply Fr_tree_eq; [exact F1|reflexivity]).
    assert (A2 : at_ s (with_r s1 r2) 1 0).
    { apply at_adv0; auto. }
    destruct ok; cbn [negb].
    - eapply (frec fuel IH _ s g _ g _ l1 (f_appendAfter f) l1 []); eauto using gext_refl, sibs_nil. lia.
    - eapply (ffail _ s g _ g _ _ _ l1 (f_appendAfter f)); eauto using gext_refl; lia. }
  destruct (next =? 1) eqn:E1.
  { (* AccessField *)
    apply (fbyte _ _ s g s1 l1 _ H1 A1 F1 Hpos). intros accessType sa Ha A2 Fa.
    apply (fbyte _ _ s g sa l1 _ Ha A2 Fa Hpos). intros accessAttrib sb Hb' A3 Fb.
    eapply (frec fuel IH _ s g _ g _ l1 (f_appendAfter f) l1 []); eauto using gext_refl, sibs_nil. lia. }
  destruct (next =? 3) eqn:E3.
  { (* ExtAccessField *)
    apply (fbyte _ _ s g s1 l1 _ H1 A1 F1 Hpos). intros accessType sa Ha A2 Fa.
    apply (fbyte _ _ s g sa l1 _ Ha A2 Fa Hpos). intros accessAttrib sb Hb' A3 Fb.
    apply (fbyte _ _ s g sb l1 _ Hb' A3 Fb Hpos). intros accessLength sc Hc' A4 Fc.
    eapply (frec fuel IH _ s g _ g _ l1 (f_appendAfter f) l1 []); eauto using gext_refl, sibs_nil. lia. }
  pose proof (fi_rok _ _ H1) as Hrok1.
  assert (Eo1 : r_offset (p_r s1) = r_offset (p_r s) + 1) by exact Ho1.
  assert (Hpc : par <> curObj) by (intros E; eapply (R_child_neq_parent _ _ (fi_R _ _ H)); [exact Hcur|symmetry; exact E]).
  destruct (next =? 2) eqn:E2.
  { (* Connection *)
    apply wp_bind. apply wp_readByte; [exact Hrok1|]. intros nx2 r2 Hadv2 Hn2 Hs2.
    assert (H2 : FIm md (with_r s1 r2) g) by (apply FI_adv; auto).
    assert (F2 : Fr NoP XC EP s g (with_r s1 r2) g) by (eapply Fr_tree_eq; [exact F1|reflexivity]).
    destruct nx2 as [next2|].
    2:{ eapply (ffail _ s g _ g _ _ _ l1 (f_appendAfter f)); [exact H2|apply at_adv0; eauto|lia|apply gext_refl|exact F2|exact Hpos|reflexivity]. }
    destruct (Hs2 _ eq_refl) as (Ho2 & Hb2 & Hlt2). clear Hn2 Hs2.
    set (s2 := with_r s1 r2) in *.
    assert (Eo2 : r_offset (p_r s2) = r_offset (p_r s) + 2) by (unfold s2; pcbn; lia).
    assert (A2 : at_ s s2 2 0).
    { replace 2 with (1 + 1) by reflexivity. apply at_adv; auto. lia. }
    apply wp_bind. eapply new_step2; [exact H2|apply (newokb_sound aml_pOpIntConnection eq_refl)| |].
    { destruct A2 as (_ & _ & _ & L & _). lia. }
    intros conn t3 g3 co H3 Hext3 Hfresh3 Hlive3 Hroot3 Hkids3 Hco Hcop Hcval Hcidx Hl3 Hfw3 Hks3 _.
    set (s3 := with_tree s2 t3) in *.
    assert (F3 : Fr NoP XC EP s g s3 g3) by (apply (Fr_new NoP XC EP s g s2 g t3 g3 conn F2 (fun x Hx => Hx) Hfresh3 Hfw3 Hks3)).
    assert (A3 : at_ s s3 2 1) by (replace 1 with (0 + 1) by reflexivity; apply at_new; auto).
    apply wp_bind. apply wp_rdf. exists co. split; [exact Hco|].
    apply wp_bind. eapply (append_step _ curObj conn s3 g3 g);
      [exact H3|exact Hwf|exact Hext3|exact Hlcur|exact Hfresh3|exact Hlive3|exact Hroot3|].
    intros t4 H4 Hext4 Hpf4 Hk4 Hk4'.
    set (g4 := astep g3 (OpAppend curObj conn)) in *.
    set (s4 := with_tree s3 t4) in *.
    assert (F4 : Fr NoP XC EP s g s4 g4) by (apply (Fr_append NoP XC EP s g s3 g3 t4 g4 curObj conn F3 Hpf4 Hk4 Hk4'); intros _; left; reflexivity).
    assert (Ekp4 : kids g4 par = kids g par) by (rewrite (Hk4' par Hpc); apply Hks3).
    assert (Hpos4 : kids g4 par = l1 ++ f_appendAfter f :: tl) by (rewrite Ekp4; exact Hpos).
    assert (A4 : at_ s s4 2 1) by (apply at_pframe; auto).
    assert (Hlconn4 : glive g4 conn) by (apply glive_set_kids; auto).
    assert (Hcur4 : In curObj (kids g4 par)) by (apply (ge_kids _ _ Hext4); auto).
    assert (Hwf4 : gwf g4) by (apply (R_gwf _ _ (fi_R _ _ H4))).
    assert (Eo4 : r_offset (p_r s4) = r_offset (p_r s) + 2) by exact Eo2.
    assert (El4 : r_len (p_r s4) = r_len (p_r s)) by (destruct A4 as (L & _); exact L).
    assert (Hpconn : par <> conn) by (intros E; apply Hfresh3; rewrite <- E; exact Hlpar).
    pose proof (fi_rok _ _ H4) as Hrok4.
    destruct (next2 =? w8 aml_pOpBuffer) eqn:EB.
    - (* Buffer *)
      apply wp_bind, wp_get. apply wp_bind, wp_get.
      apply wp_bind. apply wp_pkglen; [exact Hrok4|]. intros pkgLen ok r5 Hadv5 Hok5 Hnok5.
      assert (H5 : FIm md (with_r s4 r5) g4) by (apply FI_adv; auto).
      assert (F5 : Fr NoP XC EP s g (with_r s4 r5) g4) by (eapply Fr_tree_eq; [exact F4|reflexivity]).
      assert (A5 : at_ s (with_r s4 r5) 2 1) by (apply at_adv0; auto).
      destruct ok; cbn [negb]; [|eapply (ffail _ s g _ _ _ _ _ l1 (f_appendAfter f)); [exact H5|exact A5|lia|exact Hext4|exact F5|exact Hpos4|reflexivity]].
      destruct (Hok5 eq_refl) as (_ & Hpl).
      apply wp_bind. eapply wp_weaken; [apply (dl_block_spec2 False (r_offset (p_r s4)) pkgLen _ g4 H5)|intros []|].
      intros dl s6 (H6 & A6' & T6).
      assert (A6 : at_ s s6 2 1) by (eapply at_trans0; eauto).
      assert (F6 : Fr NoP XC EP s g s6 g4) by (eapply Fr_tree_eq; [exact F5|exact T6]).
      destruct dl as [dataLen|]; [|eapply (ffail _ s g _ _ _ _ _ l1 (f_appendAfter f)); [exact H6|exact A6|lia|exact Hext4|exact F6|exact Hpos4|reflexivity]].
      apply wp_bind. eapply new_step2; [exact H6|apply (newokb_sound aml_pOpIntByteList eq_refl)| |].
      { destruct A6 as (_ & _ & _ & L & _). lia. }
      intros carg t7 g7 cao H7 Hext7 Hfresh7 Hlive7 Hroot7 Hkids7 Hcao _ _ _ Hl7 Hfw7 Hks7 _.
      set (s7 := with_tree s6 t7) in *.
      assert (Hfresh7g : ~ glive g carg) by (intros h; apply Hfresh7; apply (ge_live _ _ Hext4); exact h).
      assert (F7 : Fr NoP XC EP s g s7 g7) by (apply (Fr_new NoP XC EP s g s6 g4 t7 g7 carg F6 (ge_live _ _ Hext4) Hfresh7 Hfw7 Hks7)).
      assert (A7 : at_ s s7 2 2) by (eapply at_new'; [exact A6|exact Hl7|reflexivity]).
      wwrf H7 Hlive7. intros o8 Hg8 Hlo8 H8.
      match type of H8 with FIm md ?st _ => assert (F8 : Fr NoP XC EP s g st g7) by (apply Fr_tset_fresh; [exact F7|exact Hfresh7g]) end.
      apply wp_bind. eapply wp_weaken; [apply (parseByteList_spec2 False carg (w32 dataLen) _ g7 H8 Hlive7)|intros []|].
      intros res s9 (H9 & R9 & T9).
      assert (F9 : Fr NoP XC EP s g s9 g7).
      { eapply Fr_gets; [exact F8|]. intros i Hi. apply T9. intros ->. contradiction. }
      assert (A9 : at_ s s9 2 2).
      { apply at_tset with (p := carg) (f := set_amlOffset (r_offset (p_r s4))) in A7.
        destruct A7 as (B1 & B2 & B3 & B4 & B5 & B6). destruct R9 as (C1 & C2 & C3 & C4 & C5).
        pose proof (fi_rok _ _ H9) as (_ & _ & O9).
        unfold at_. repeat split; try lia; try congruence. }
      destruct (pres_eqb res ROk); cbn [negb]; [|eapply (ffail _ s g _ _ _ _ _ l1 (f_appendAfter f)); [exact H9|exact A9|lia|eapply gext_trans; eauto|exact F9|rewrite Hks7; exact Hpos4|reflexivity]].
      apply wp_bind. apply wp_setPkgEnd.
      set (s10 := with_r s9 (fst (setPkgEnd (p_r s9) (r_pkgEnd (p_r s4))))).
      assert (Hrok10 : rok (p_r s10)) by (apply rok_setPkgEnd, (fi_rok _ _ H9)).
      destruct (setPkgEnd_off (p_r s9) (r_pkgEnd (p_r s4))) as (Eo10 & El10).
      apply wp_bind. apply wp_ru.
      set (o11 := w32 (r_offset (p_r s4) + pkgLen)).
      set (s11 := with_r s10 (setOffset (p_r s10) o11)).
      destruct (rok_setOffset (p_r s10) o11 Hrok10) as (Hrok11 & El11).
      assert (H11 : FIm md s11 g7) by (apply FI_with_r; [apply FI_with_r; [exact H9|exact Hrok10]|exact Hrok11]).
      assert (F11 : Fr NoP XC EP s g s11 g7) by (eapply Fr_tree_eq; [exact F9|reflexivity]).
      assert (A11 : at_ s s11 2 2).
      { destruct A9 as (B1 & B2 & B3 & B4 & B5 & B6).
        assert (El : r_len (p_r s10) = r_len (p_r s)) by (unfold s10; pcbn; congruence).
        eapply at_r with (s' := s10) (k := 2) (c := 2).
        - unfold at_, s10, lp in *. pcbn. repeat split; auto; try congruence; lia.
        - exact El11.
        - pcbn. unfold setOffset. cbn [r_offset set_offset_raw]. rewrite El.
          assert (Eo : o11 = r_offset (p_r s4) + pkgLen).
          { unfold o11, w32. apply N.mod_small. destruct Hrok4 as (_ & Sm & O4). unfold small_table, two32 in *. lia. }
          destruct Hrok4 as (_ & _ & O4). destruct (r_len (p_r s) <? o11) eqn:Ec; lia.
        - destruct Hrok11 as (_ & _ & O). exact O. }
      apply wp_bind. eapply (append_step _ conn carg s11 g7 g4);
        [exact H11|exact Hwf4|exact Hext7|exact Hlconn4|exact Hfresh7|exact Hlive7|exact Hroot7|].
      intros t12 H12 Hext12 Hpf12 Hk12 Hk12'.
      assert (F12 : Fr NoP XC EP s g (with_tree s11 t12) (astep g7 (OpAppend conn carg))).
      { apply (Fr_append NoP XC EP s g s11 g7 t12 _ conn carg F11 Hpf12 Hk12 Hk12'). intros h. contradiction. }
      eapply (frec fuel IH _ s g _ _ _ l1 (f_appendAfter f) l1 []); [exact H12| |reflexivity| | | |reflexivity|exact F12|exact Hroom|exact Hlcur|apply sibs_nil].
      + eapply at_weaken; [apply at_pframe; [exact A11|exact Hpf12]|lia|lia].
      + eapply gext_trans; eauto.
      + apply (ge_kids _ _ Hext12); auto.
      + rewrite (Hk12' par Hpconn), Hks7. exact Hpos4.
    - (* a name *)
      apply wp_bind. apply wp_ru.
      assert (Hz : (r_offset (p_r s4) =? 0) = false) by (apply N.eqb_neq; lia).
      unfold unreadByte. rewrite Hz. cbn [fst].
      set (r5 := set_offset_raw (p_r s4) (r_offset (p_r s4) - 1)).
      assert (Hrok5 : rok r5).
      { destruct Hrok4 as (W & Sm & O). split; [eapply wf_same_window; [exact W|apply same_window_set_offset]|].
        split; [exact Sm|]. unfold r5. cbn [r_offset r_len set_offset_raw]. lia. }
      assert (H5 : FIm md (with_r s4 r5) g4) by (apply FI_with_r; auto).
      assert (F5 : Fr NoP XC EP s g (with_r s4 r5) g4) by (eapply Fr_tree_eq; [exact F4|reflexivity]).
      assert (A5 : at_ s (with_r s4 r5) 1 1).
      { eapply at_r; [exact A4|reflexivity|unfold r5; cbn [r_offset r_len set_offset_raw]; lia|destruct Hrok5 as (_ & _ & O); exact O]. }
      apply wp_bind. eapply new_step2; [exact H5|apply (newokb_sound aml_pOpIntNamePath eq_refl)| |].
      { destruct A5 as (_ & _ & _ & L & _). lia. }
      intros carg t7 g7 cao H7 Hext7 Hfresh7 Hlive7 Hroot7 Hkids7 Hcao _ _ _ Hl7 Hfw7 Hks7 _.
      set (s7 := with_tree (with_r s4 r5) t7) in *.
      assert (Hfresh7g : ~ glive g carg) by (intros h; apply Hfresh7; apply (ge_live _ _ Hext4); exact h).
      assert (F7 : Fr NoP XC EP s g s7 g7) by (apply (Fr_new NoP XC EP s g (with_r s4 r5) g4 t7 g7 carg F5 (ge_live _ _ Hext4) Hfresh7 Hfw7 Hks7)).
      assert (A7 : at_ s s7 1 2) by (eapply at_new'; [exact A5|exact Hl7|reflexivity]).
      apply wp_bind, wp_get.
      wwrf H7 Hlive7. intros o8 Hg8 Hlo8 H8.
      apply wp_bind, wp_get.
      apply wp_bind. apply wp_namestring; [apply (fi_rok _ _ H8)|]. intros v ok r9 Hadv9 Hok9.
      match type of H8 with FIm md ?st _ => set (s8 := st) in * end.
      assert (F8 : Fr NoP XC EP s g s8 g7) by (apply Fr_tset_fresh; [exact F7|exact Hfresh7g]).
      assert (A8 : at_ s s8 1 2) by (apply at_tset; exact A7).
      assert (H9 : FIm md (with_r s8 r9) g7) by (apply FI_adv; auto).
      assert (F9 : Fr NoP XC EP s g (with_r s8 r9) g7) by (eapply Fr_tree_eq; [exact F8|reflexivity]).
      assert (A9 : at_ s (with_r s8 r9) 1 2) by (apply at_adv0; auto).
      wwrf H9 Hlive7. intros o10 Hg10 Hlo10 H10.
      match type of H10 with FIm md ?st _ => set (s10 := st) in * end.
      assert (F10 : Fr NoP XC EP s g s10 g7) by (apply Fr_tset_fresh; [exact F9|exact Hfresh7g]).
      assert (A10 : at_ s s10 1 2) by (apply at_tset; exact A9).
      destruct ok; cbn [negb]; [|eapply (ffail _ s g _ _ _ _ _ l1 (f_appendAfter f)); [exact H10|exact A10|lia|eapply gext_trans; eauto|exact F10|rewrite Hks7; exact Hpos4|reflexivity]].
      apply wp_bind. eapply (append_step _ conn carg s10 g7 g4);
        [exact H10|exact Hwf4|exact Hext7|exact Hlconn4|exact Hfresh7|exact Hlive7|exact Hroot7|].
      intros t12 H12 Hext12 Hpf12 Hk12 Hk12'.
      assert (F12 : Fr NoP XC EP s g (with_tree s10 t12) (astep g7 (OpAppend conn carg))).
      { apply (Fr_append NoP XC EP s g s10 g7 t12 _ conn carg F10 Hpf12 Hk12 Hk12'). intros h. contradiction. }
      eapply (frec fuel IH _ s g _ _ _ l1 (f_appendAfter f) l1 []); [exact H12| |reflexivity| | | |reflexivity|exact F12|exact Hroom|exact Hlcur|apply sibs_nil].
      + eapply at_weaken; [apply at_pframe; [exact A10|exact Hpf12]|lia|lia].
      + eapply gext_trans; eauto.
      + apply (ge_kids _ _ Hext12); auto.
      + rewrite (Hk12' par Hpconn), Hks7. exact Hpos4. }
  (* a named field *)
  apply wp_bind. apply wp_ru.
  assert (Hz : (r_offset (p_r s1) =? 0) = false) by (apply N.eqb_neq; lia).
  unfold unreadByte. rewrite Hz. cbn [fst].
  set (r2 := set_offset_raw (p_r s1) (r_offset (p_r s1) - 1)).
  assert (Hrok2 : rok r2).
  { destruct Hrok1 as (W & Sm & O). split; [eapply wf_same_window; [exact W|apply same_window_set_offset]|].
    split; [exact Sm|]. unfold r2. cbn [r_offset r_len set_offset_raw]. lia. }
  assert (H2 : FIm md (with_r s1 r2) g) by (apply FI_with_r; auto).
  assert (F2 : Fr NoP XC EP s g (with_r s1 r2) g) by (eapply Fr_tree_eq; [exact F1|reflexivity]).
  assert (A2 : at_ s (with_r s1 r2) 0 0).
  { eapply at_r; [exact A1|reflexivity|unfold r2; cbn [r_offset r_len set_offset_raw]; lia|destruct Hrok2 as (_ & _ & O); exact O]. }
  apply wp_bind. eapply new_step2; [exact H2|apply (newokb_sound aml_pOpIntNamedField eq_refl)| |].
  { destruct A2 as (_ & _ & _ & L & _). lia. }
  intros fld t3 g3 fo H3 Hext3 Hfresh3 Hlive3 Hroot3 Hkids3 Hfo _ _ Hrow3 Hl3 Hfw3 Hks3 _.
  set (s3 := with_tree (with_r s1 r2) t3) in *.
  assert (F3 : Fr NoP XC EP s g s3 g3) by (apply (Fr_new NoP XC EP s g (with_r s1 r2) g t3 g3 fld F2 (fun x Hx => Hx) Hfresh3 Hfw3 Hks3)).
  assert (A3 : at_ s s3 0 1) by (eapply at_new'; [exact A2|exact Hl3|reflexivity]).
  apply wp_bind, wp_get.
  wwrf H3 Hlive3. intros o4 Hg4 Hlo4 H4.
  match type of H4 with FIm md ?st _ => set (s4 := st) in * end.
  assert (F4 : Fr NoP XC EP s g s4 g3) by (apply Fr_tset_fresh; [exact F3|exact Hfresh3]).
  assert (A4 : at_ s s4 0 1) by (apply at_tset; exact A3).
  apply wp_bind. eapply wp_weaken; [apply (readName_go_spec2 False fld (N.to_nat aml_amlNameLen) 0%nat s4 g3 H4 Hlive3)|intros []|].
  intros okn s5 (H5 & A5' & T5 & I5).
  assert (F5 : Fr NoP XC EP s g s5 g3).
  { eapply Fr_gets; [exact F4|]. intros i Hi. apply T5. intros ->. contradiction. }
  assert (A5 : at_ s s5 0 1) by (eapply at_trans0; eauto).
  destruct okn; cbn [negb]; [|eapply (ffail _ s g _ _ _ _ _ l1 (f_appendAfter f)); [exact H5|exact A5|lia|exact Hext3|exact F5|rewrite Hks3; exact Hpos|reflexivity]].
  apply wp_bind. apply wp_pkglen; [apply (fi_rok _ _ H5)|]. intros pkgLen ok r6 Hadv6 Hok6 Hnok6.
  assert (H6 : FIm md (with_r s5 r6) g3) by (apply FI_adv; auto).
  assert (F6 : Fr NoP XC EP s g (with_r s5 r6) g3) by (eapply Fr_tree_eq; [exact F5|reflexivity]).
  destruct ok; cbn [negb]; [|eapply (ffail _ s g _ _ _ _ _ l1 (f_appendAfter f)); [exact H6|apply at_adv0; [exact A5|exact Hadv6]|lia|exact Hext3|exact F6|rewrite Hks3; exact Hpos|reflexivity]].
  destruct (Hok6 eq_refl) as (Hlt6 & _).
  set (s6 := with_r s5 r6) in *.
  assert (A6 : at_ s s6 1 1).
  { replace 1 with (0 + 1) at 1 by reflexivity. apply at_adv; [exact A5|exact Hadv6|lia]. }
  assert (Hcur3 : In curObj (kids g3 par)) by (apply (ge_kids _ _ Hext3); auto).
  assert (Haft3 : In (f_appendAfter f) (kids g3 par)) by (apply (ge_kids _ _ Hext3); auto).
  assert (Hlcur3 : glive g3 curObj) by (apply (ge_live _ _ Hext3); auto).
  assert (Hlpar3 : glive g3 par) by (apply (ge_live _ _ Hext3); auto).
  destruct (FI_live_get _ _ _ H6 Hlcur3) as (co & Hco & Hlco).
  apply wp_bind. apply wp_rdf. exists co. split; [exact Hco|].
  wwrf H6 Hlive3. intros o7 Hg7 Hlo7 H7.
  match type of H7 with FIm md ?st _ => set (s7 := st) in * end.
  assert (F7 : Fr NoP XC EP s g s7 g3) by (apply Fr_tset_fresh; [exact F6|exact Hfresh3]).
  assert (A7 : at_ s s7 1 1) by (apply at_tset; exact A6).
  destruct (R_In_kids _ _ (fi_R _ _ H7) _ _ Hcur3) as (_ & co7 & Hco7 & _ & Hpar7).
  apply wp_bind. apply wp_rdf. exists co7. split; [exact Hco7|]. rewrite Hpar7.
  apply wp_bind. apply wp_objectAt'; [apply (FI_ObjectAt _ _ _ H7 Hlpar3)|].
  apply wp_bind. eapply (appendAfter_step2 _ par fld (f_appendAfter f) s7 g3 g);
    [exact H7|exact Hwf|exact Hext3|exact Hlpar|exact Hfresh3|exact Hlive3|exact Hroot3|exact Haft3|].
  intros t8 H8 Hext8 Hpf8 Hk8 Hk8'.
  assert (Ekp3 : kids g3 par = l1 ++ f_appendAfter f :: tl) by (rewrite Hks3; exact Hpos).
  assert (Ek8 : kids (astep g3 (OpAppendAfter par fld (f_appendAfter f))) par = (l1 ++ [f_appendAfter f]) ++ fld :: tl).
  { rewrite Hk8, Ekp3. rewrite insert_after_split; [rewrite <- app_assoc; reflexivity|].
    destruct (FI_live_get _ _ _ H7 Hlpar3) as (po & Hpo & Hlpo).
    destruct (R_kids _ _ (fi_R _ _ H7) _ _ Hpo Hlpo) as (_ & _ & _ & Hnd). rewrite Ekp3 in Hnd.
    apply NoDup_remove_2 in Hnd. intros Hin. apply Hnd. apply in_or_app. left. exact Hin. }
  assert (F8 : Fr NoP XC EP s g (with_tree s7 t8) (astep g3 (OpAppendAfter par fld (f_appendAfter f)))).
  { apply (Fr_kids_E NoP XC EP s g s7 g3 t8 _ par F7 Hpf8 Hk8'). intros _. reflexivity. }
  assert (Hnf8 : nfrow (with_tree s7 t8) fld).
  { assert (E4 : o4 = fo) by (unfold s3 in Hg4; pcbn_in Hg4; congruence). subst o4.
    assert (E4 : exists o4', tget (p_tree s4) fld = Some o4' /\ o_infoIndex o4' = o_infoIndex fo).
    { unfold s4. pcbn. rewrite get_tset, N.eqb_refl, Hg4. cbn [option_map]. eexists. split; reflexivity. }
    destruct E4 as (o4' & Ho4' & Ei4). destruct (I5 _ Ho4') as (o5 & Ho5 & Ei5).
    assert (E7 : o7 = o5) by (unfold s6 in Hg7; pcbn_in Hg7; congruence). subst o7.
    assert (E7' : exists o7', tget (p_tree s7) fld = Some o7' /\ o_infoIndex o7' = o_infoIndex o5).
    { unfold s7. pcbn. rewrite get_tset, N.eqb_refl, Hg7. cbn [option_map]. eexists. split; reflexivity. }
    destruct E7' as (o7' & Ho7' & Ei7). destruct (proj2 Hpf8 _ _ Ho7') as (o8 & Ho8 & (_ & Ei8 & _)).
    exists o8. split; [exact Ho8|]. rewrite Ei8, Ei7, Ei5, Ei4. exact Hrow3. }
  assert (Hsib8 : sibs g (with_tree s7 t8) (astep g3 (OpAppendAfter par fld (f_appendAfter f))) [fld]).
  { constructor; [|constructor]. split; [exact Hfresh3|]. split.
    - apply ((R_gwf _ _ (fi_R _ _ H8)) par fld). rewrite Ek8. apply in_or_app. right. left. reflexivity.
    - split; [|exact Hnf8]. rewrite Hk8'; [exact Hkids3|]. intros E. apply Hfresh3. rewrite E. exact Hlpar. }
  eapply (frec fuel IH _ s g _ _ _ l1 (f_appendAfter f) (l1 ++ [f_appendAfter f]) [fld]); [exact H8| |reflexivity|exact Hext8| |exact Ek8| |exact F8|exact Hroom|exact Hlcur|exact Hsib8].
  + eapply at_weaken; [apply at_pframe; [exact A7|exact Hpf8]|lia|lia].
  + rewrite Hk8. apply In_insert_after_old. exact Hcur3.
  + cbn [f_appendAfter]. rewrite <- app_assoc. reflexivity.
Qed.

End Field2.

Lemma parseFieldElements_spec2 {md} curObj par l1 tl s g :
  FIm md s g -> kids g par = l1 ++ curObj :: tl -> Phi s + 4 <= InvalidIndex ->
  (exists co lo v, tget (p_tree s) curObj = Some co /\ tget (p_tree s) (o_last co) = Some lo /\
                   o_opcode lo <> opFreed /\ o_value lo = Some (VNum v)) ->
  specm md False (parseFieldElements curObj) s g (fun res s' g' =>
    FPost s res s' /\ Fr NoP (XC curObj) (EP par) s g s' g' /\ exists new, kids g' par = l1 ++ curObj :: new ++ tl /\ sibs g s' g' new).
Proof.
  intros H Hlast Hroom (co & lo & v & Hco & Hlo & Hllo & Hv). unfold specm, parseFieldElements.
  assert (Hcur : In curObj (kids g par)) by (rewrite Hlast; apply in_or_app; right; left; reflexivity).
  apply wp_bind. apply wp_rdf. exists co. split; [exact Hco|].
  apply wp_bind. apply wp_objectAt'.
  { eapply ObjectAt_live; eauto. apply (R_bound _ _ (fi_R _ _ H)). }
  apply wp_bind. apply wp_rdo. exists lo. split; [exact Hlo|]. rewrite Hv.
  apply wp_bind, wp_get.
  eapply wp_weaken; [apply (fieldElements_spec2 md curObj par tl _ _ s g l1)| |].
  - split; [exact H|]. split; [exact Hcur|]. split; [exact Hlast|exact Hroom].
  - intros Hf. pose proof (fi_rok _ _ H) as ((W1 & _) & _). unfold rem in Hf. lia.
  - intros res s' HQ. exact HQ.
Qed.

Lemma parseFieldElements_spec {md} curObj par s g :
  FIm md s g -> In curObj (kids g par) -> Phi s + 4 <= InvalidIndex ->
  (exists co lo v, tget (p_tree s) curObj = Some co /\ tget (p_tree s) (o_last co) = Some lo /\
                   o_opcode lo <> opFreed /\ o_value lo = Some (VNum v)) ->
  specm md False (parseFieldElements curObj) s g (fun res s' _ => FPost s res s').
Proof.
  intros H Hcur Hroom Hlast. destruct (in_split _ _ Hcur) as (l1 & tl & E).
  eapply wp_weaken; [apply (parseFieldElements_spec2 curObj par l1 tl s g H E Hroom Hlast)|auto|].
  intros res s' (g' & F1 & F2 & F3 & _). exists g'. auto.
Qed.
