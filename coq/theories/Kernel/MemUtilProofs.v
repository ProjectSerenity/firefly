(** Proofs about Kernel/MemUtil.v: the doubling loop of Memset fills exactly the requested region for
    EVERY size (not only powers of two), never runs out of the 64 iterations a 64-bit index allows,
    and touches nothing outside; Memcopy is a memmove. *)
From Coq Require Import NArith Lia List Bool Arith.
From Coq Require Import ZifyBool ZifyN ZifyNat.
From FF Require Import Lib.Std Lib.Word Kernel.MemUtil.
Import ListNotations.
Local Open Scope N_scope.

(** ---- list facts ---- *)

Lemma firstn_le_app {A} (l r : list A) : forall n, (n <= length l)%nat -> firstn n (l ++ r) = firstn n l.
Proof.
  induction l as [|a l IH]; intros n H; cbn in *.
  - assert (n = 0%nat) by lia. subst. reflexivity.
  - destruct n as [|n]; cbn; [reflexivity|]. f_equal. apply IH. lia.
Qed.

Lemma skipn_le_app {A} (l r : list A) : forall n, (n <= length l)%nat -> skipn n (l ++ r) = skipn n l ++ r.
Proof.
  induction l as [|a l IH]; intros n H; cbn in *.
  - assert (n = 0%nat) by lia. subst. reflexivity.
  - destruct n as [|n]; cbn; [reflexivity|]. apply IH. lia.
Qed.

Lemma skipn_add_app {A} (l r : list A) k : skipn (length l + k) (l ++ r) = skipn k r.
Proof. induction l as [|a l IH]; cbn; auto. Qed.

Lemma firstn_repeat {A} (v : A) : forall p n, (n <= p)%nat -> firstn n (repeat v p) = repeat v n.
Proof.
  induction p as [|p IH]; intros n H; cbn.
  - assert (n = 0%nat) by lia. subst. reflexivity.
  - destruct n as [|n]; cbn; [reflexivity|]. f_equal. apply IH. lia.
Qed.

(** copy(target[index:], target[:index]) on  A ++ P ++ R ++ C  with target = P ++ R *)
Lemma go_copy_decomp (A P R C : list N) :
  go_copy (A ++ P ++ R ++ C) (length A + length P) (length R) (length A) (length P) =
  A ++ P ++ firstn (Nat.min (length R) (length P)) P ++ skipn (Nat.min (length R) (length P)) R ++ C.
Proof.
  unfold go_copy. set (n := Nat.min (length R) (length P)).
  assert (Hn1: (n <= length P)%nat) by (unfold n; lia).
  assert (Hn2: (n <= length R)%nat) by (unfold n; lia).
  rewrite firstn_app_2, (firstn_len_app P), skipn_len_app, (firstn_le_app P) by exact Hn1.
  replace (length A + length P + n)%nat with (length A + (length P + n))%nat by lia.
  rewrite skipn_add_app, skipn_add_app, (skipn_le_app R) by exact Hn2.
  rewrite <- !app_assoc. reflexivity.
Qed.

(** ---- Memset ---- *)
Section Memset.
  Variables (A C : list N) (v : N) (size : N).
  Let sz := N.to_nat size.
  Hypothesis Hsize : size < 2 ^ 63.

  Lemma memset_loop_fills : forall fuel index p R,
    0 < index -> p = Nat.min (N.to_nat index) sz -> length R = (sz - p)%nat ->
    size <= index * 2 ^ N.of_nat fuel ->
    memset_loop (S fuel) (A ++ repeat v p ++ R ++ C) (length A) index size = MOk (A ++ repeat v sz ++ C).
  Proof.
    induction fuel as [|fuel IH]; intros index p R Hpos Hp HR Hfuel; cbn [memset_loop].
    - (* no fuel left: index >= size *)
      replace (2 ^ N.of_nat 0) with 1 in Hfuel by reflexivity.
      destruct (N.ltb_spec index size) as [L|L]; [lia|].
      assert (Hpz: p = sz) by (subst sz; lia). assert (HR0: length R = 0%nat) by lia.
      destruct R; [|discriminate]. rewrite Hpz. reflexivity.
    - destruct (N.ltb_spec index size) as [L|L].
      + assert (Hp': p = N.to_nat index) by (subst sz; lia).
        assert (HR': length R = N.to_nat (size - index)) by (subst sz; lia).
        pose proof (go_copy_decomp A (repeat v p) R C) as D. rewrite repeat_length in D.
        rewrite <- Hp', <- HR'. rewrite D. clear D.
        set (n := Nat.min (length R) p).
        rewrite firstn_repeat by (unfold n; lia).
        rewrite (app_assoc (repeat v p)), <- repeat_app.
        assert (Hw: w64 (index * 2) = index * 2).
        { unfold w64. apply N.mod_small. change two64 with (2 ^ 64). change (2 ^ 64) with (2 ^ 63 * 2). lia. }
        rewrite Hw. apply IH.
        * lia.
        * unfold n. subst sz. lia.
        * rewrite skipn_length. unfold n. lia.
        * replace (N.of_nat (S fuel)) with (N.succ (N.of_nat fuel)) in Hfuel by lia.
          rewrite N.pow_succ_r' in Hfuel. lia.
      + assert (Hpz: p = sz) by (subst sz; lia). assert (HR0: length R = 0%nat) by lia.
        destruct R; [|discriminate]. rewrite Hpz. reflexivity.
  Qed.
End Memset.

Lemma split3 (mem : list N) base sz : (base + sz <= length mem)%nat ->
  mem = firstn base mem ++ firstn sz (skipn base mem) ++ skipn (base + sz) mem /\
  length (firstn base mem) = base /\ length (firstn sz (skipn base mem)) = sz.
Proof.
  intros H. repeat split.
  - rewrite <- (firstn_skipn base mem) at 1. f_equal.
    rewrite <- (firstn_skipn sz (skipn base mem)) at 1. f_equal. rewrite skipn_skipn'. reflexivity.
  - rewrite firstn_length. lia.
  - rewrite firstn_length, skipn_length. lia.
Qed.

(** Memset fills exactly [size] bytes at [base] with [value] - for every size below 2^63, power of two
    or not - within the 64 iterations the index can make, and leaves every other byte as it was. *)
Theorem memset_spec (mem : list N) (base : nat) (value size : N) :
  size <> 0 -> size < 2 ^ 63 -> (base + N.to_nat size <= length mem)%nat ->
  memset mem base value size =
  MOk (firstn base mem ++ repeat value (N.to_nat size) ++ skipn (base + N.to_nat size) mem).
Proof.
  intros H0 Hs Hb. unfold memset.
  destruct (N.eqb_spec size 0) as [E|_]; [contradiction|].
  destruct (N.leb_spec (2 ^ 63) size) as [L|_]; [lia|].
  set (sz := N.to_nat size) in *.
  destruct (split3 mem base sz Hb) as (Hm & HA & HB).
  set (A := firstn base mem) in *. set (B := firstn sz (skipn base mem)) in *. set (C := skipn (base + sz) mem) in *.
  destruct B as [|b R] eqn:EB; [cbn in HB; subst sz; lia|].
  assert (Hset: set_byte mem base value = A ++ repeat value 1 ++ R ++ C).
  { unfold set_byte. fold A. rewrite Hm at 1. rewrite <- HA at 1.
    replace (S (length A)) with (length A + 1)%nat by lia. rewrite skipn_add_app. reflexivity. }
  rewrite Hset. rewrite <- HA.
  apply (memset_loop_fills A C value size Hs 63 1 1%nat R); try lia; try (cbn in HB; fold sz; lia).
  all: change (N.of_nat 63) with 63; lia.
Qed.

Theorem memset_zero_size mem base value : memset mem base value 0 = MOk mem.
Proof. reflexivity. Qed.

Theorem memset_huge_undef mem base value size : 2 ^ 63 <= size -> memset mem base value size = MUndef.
Proof.
  intros H. unfold memset. destruct (N.eqb_spec size 0) as [E|_]; [subst; cbn in H; lia|].
  destruct (N.leb_spec (2 ^ 63) size); [reflexivity|lia].
Qed.

(** ---- Memcopy ---- *)
Lemma go_copy_length mem d s n : (d + n <= length mem)%nat -> (s + n <= length mem)%nat ->
  length (go_copy mem d n s n) = length mem.
Proof.
  intros Hd Hs. unfold go_copy. rewrite Nat.min_id, !app_length, !firstn_length, !skipn_length. lia.
Qed.

(** the destination afterwards shows what the source showed BEFORE the call (also when the two
    regions overlap), and no byte outside the destination changes *)
Theorem memcopy_spec (mem : list N) (src dst : nat) (size : N) :
  size < 2 ^ 63 -> (src + N.to_nat size <= length mem)%nat -> (dst + N.to_nat size <= length mem)%nat ->
  exists mem', memcopy mem src dst size = MOk mem' /\ length mem' = length mem /\
    firstn (N.to_nat size) (skipn dst mem') = firstn (N.to_nat size) (skipn src mem) /\
    firstn dst mem' = firstn dst mem /\
    skipn (dst + N.to_nat size) mem' = skipn (dst + N.to_nat size) mem.
Proof.
  intros Hs Hsrc Hdst. unfold memcopy.
  destruct (N.eqb_spec size 0) as [E|E].
  - subst. exists mem. cbn. repeat split; reflexivity.
  - destruct (N.leb_spec (2 ^ 63) size) as [L|_]; [lia|].
    set (n := N.to_nat size) in *. eexists. split; [reflexivity|].
    split; [apply go_copy_length; assumption|].
    unfold go_copy. rewrite Nat.min_id.
    assert (HA: length (firstn dst mem) = dst) by (rewrite firstn_length; lia).
    assert (HB: length (firstn n (skipn src mem)) = n) by (rewrite firstn_length, skipn_length; lia).
    repeat split.
    + rewrite <- HA at 1. rewrite skipn_len_app. rewrite <- HB at 1. rewrite firstn_len_app. reflexivity.
    + rewrite <- HA at 1. apply firstn_len_app.
    + rewrite <- HA at 1. rewrite skipn_add_app. rewrite <- HB at 1. rewrite skipn_len_app. reflexivity.
Qed.
