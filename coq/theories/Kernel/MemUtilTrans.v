(** The hand-written models of kernel.Memset / kernel.Memcopy (Kernel/MemUtil.v [memset], [memcopy], proved correct for
    every size below 2^63 in Kernel/MemUtilProofs.v, Props/C06_mem.v) ARE the Gallina translation that gen/gotrans
    (byte-memory mode of gen/gotrans/ext_mem.go, config kernel_mem.json) regenerates from kernel/mem_util.go on every run
    (Gen/Trans_kernel_mem.v).  The slice overlaid on raw memory through reflect.SliceHeader is a window (start address,
    length) of the byte memory (Lib/GoBytes.v); the memory is the model's list of bytes, address = index; Go's copy is
    the model's [go_copy], a byte store the model's [set_byte]. *)
From Coq Require Import NArith ZArith List Bool Lia.
From Coq Require Import ZifyBool ZifyN ZifyNat.
From FF Require Import Lib.Word Lib.GoOps Lib.GoOpsExt Lib.GoOpsProofs Lib.GoBytes Gen.Trans_kernel_mem Kernel.MemUtil Kernel.MemUtilProofs.
Import ListNotations.
Local Open Scope N_scope.

Notation W := mk_go_kernel_world (only parsing).

(** the model's outcomes as outcomes of the translation: a size of 2^63 or more - outside the model, [MUndef] - is where
    the translation stops with a panic at the overlay (int(size) is negative) *)
Definition mres_gres (tr : list gcall) (r : mres) : gres (go_kernel_world * unit) :=
  match r with MOk m => GOk (W tr m, tt) | MUndef => GPanic | MFuel => GFuel end.

Lemma to_nat_add base i : N.to_nat (N.of_nat base + i) = (base + N.to_nat i)%nat.
Proof. rewrite N2Nat.inj_add, Nat2N.id. reflexivity. Qed.

Theorem memset_is_translation mem base value size tr fuel :
  go_kernel_Memset fuel (W tr mem) (N.of_nat base) value size =
  mres_gres tr (if size =? 0 then MOk mem
                else if 2 ^ 63 <=? size then MUndef
                else memset_loop fuel (set_byte mem base value) base 1 size).
Proof.
  unfold go_kernel_Memset.
  destruct (size =? 0) eqn:E0; [reflexivity|]. apply N.eqb_neq in E0.
  unfold gwoverlay. rewrite N.ltb_antisym.
  destruct (2 ^ 63 <=? size) eqn:Ebig; cbn [negb]; [reflexivity|].
  unfold gwset. cbn [fst snd].
  destruct (N.ltb_spec 0 size) as [_|]; [|lia].
  rewrite N.add_0_r, Nat2N.id. cbn [f_world_mem set_f_world_mem f_world_trace].
  change (gw 64 1) with 1.
  match goal with |- context [gloop fuel ?f _] => set (step := f) end.
  generalize (set_byte mem base value) as m. generalize 1 as idx.
  induction fuel as [|fuel IH]; intros idx m; [reflexivity|].
  rewrite gloop_S. cbn [memset_loop]. unfold step at 1. cbv beta iota.
  destruct (N.ltb_spec idx size) as [Hlt|Hge]; [|reflexivity].
  unfold gwfrom, gwto. cbn [fst snd].
  destruct (N.leb_spec idx size) as [_|]; [|lia].
  cbn [f_world_mem set_f_world_mem f_world_trace].
  unfold gwcopy. cbn [fst snd]. rewrite to_nat_add, Nat2N.id, gw64.
  apply IH.
Qed.

Theorem memcopy_is_translation mem src dst size tr :
  go_kernel_Memcopy (W tr mem) (N.of_nat src) (N.of_nat dst) size = mres_gres tr (memcopy mem src dst size).
Proof.
  unfold go_kernel_Memcopy, memcopy.
  destruct (size =? 0); [reflexivity|].
  unfold gwoverlay. rewrite N.ltb_antisym.
  destruct (2 ^ 63 <=? size); cbn [negb]; [reflexivity|].
  unfold gwcopy. cbn [fst snd f_world_mem set_f_world_mem f_world_trace]. rewrite !Nat2N.id. reflexivity.
Qed.

(** with the model's 64 units of fuel *)
Corollary memset_is_translation_64 mem base value size tr :
  go_kernel_Memset 64 (W tr mem) (N.of_nat base) value size = mres_gres tr (memset mem base value size).
Proof. apply memset_is_translation. Qed.

Theorem memset_translated_fills_exactly mem base value size tr :
  size <> 0 -> size < 2 ^ 63 -> (base + N.to_nat size <= length mem)%nat ->
  go_kernel_Memset 64 (W tr mem) (N.of_nat base) value size =
  GOk (W tr (firstn base mem ++ repeat value (N.to_nat size) ++ skipn (base + N.to_nat size) mem), tt).
Proof.
  intros H0 H1 H2. rewrite memset_is_translation_64, (memset_spec mem base value size H0 H1 H2). reflexivity.
Qed.
