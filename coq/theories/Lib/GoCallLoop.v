(** A translated loop ([gloop], Lib/GoOps.v) of at most [n] rounds in which round [i] makes the seam call [ev i] and the
    function returns [ret] of the trace as soon as a call fails: the page loops of vmm.MapRegion, vmm.IdentityMapRegion,
    goruntime's sysMap.  [st i tr] is the loop-carried state before round [i] with trace [tr] (most recent call first);
    [Inv] is what the call's oracle needs to know of the trace to tell whether the call fails. *)
From Coq Require Import NArith Lia Bool List.
From Coq Require Import ZifyBool ZifyN ZifyNat.
From FF Require Import Lib.GoOps Lib.GoOpsExt.
Import ListNotations.
Local Open Scope N_scope.

Section CallLoop.
  Context {St R : Type} (step : St -> gres (gctl St R)).
  Variables (st : nat -> list gcall -> St) (ev : nat -> gcall) (ret : list gcall -> R) (failing : nat -> bool)
            (Inv : nat -> list gcall -> Prop) (n : nat).

  Definition evs (i m : nat) : list gcall := rev (map ev (seq i m)).

  Lemma evs_S i m : evs i (S m) = evs (S i) m ++ [ev i].
  Proof. reflexivity. Qed.

  Fixpoint first_failing (i m : nat) : option nat :=
    match m with
    | O => None
    | S m' => if failing i then Some O else option_map S (first_failing (S i) m')
    end.

  Hypothesis Hinv : forall i tr, Inv i tr -> Inv (S i) (ev i :: tr).
  Hypothesis Hbreak : forall tr, step (st n tr) = GOk (GBreak (st n tr)).
  Hypothesis Hround : forall i tr, (i < n)%nat -> Inv i tr ->
    step (st i tr) = if failing i then GOk (GRet (ret (ev i :: tr))) else GOk (GNext (st (S i) (ev i :: tr))).

  Lemma gloop_calls : forall m i tr fuel, (i + m = n)%nat -> Inv i tr -> (m < fuel)%nat ->
    gloop fuel step (st i tr) =
    match first_failing i m with
    | Some j => GOk (inr (ret (evs i (S j) ++ tr)))
    | None => GOk (inl (st n (evs i m ++ tr)))
    end.
  Proof.
    induction m as [|m IH]; intros i tr fuel Hi HI Hf; (destruct fuel as [|fuel]; [lia|]); cbn [first_failing].
    - replace i with n by lia. apply gloop_break, Hbreak.
    - rewrite gloop_S, Hround by (try exact HI; lia).
      destruct (failing i); [reflexivity|].
      rewrite (IH (S i) (ev i :: tr) fuel) by (try apply Hinv; try exact HI; lia).
      destruct (first_failing (S i) m) as [j|]; cbn [option_map]; rewrite (evs_S i), <- app_assoc; reflexivity.
  Qed.
End CallLoop.

Definition fails_round (fail : option N) (i : nat) : bool :=
  match fail with Some k => N.of_nat i =? k | None => false end.

Lemma first_failing_at (fail : option N) m : forall i,
  first_failing (fails_round fail) i m =
  match fail with
  | Some k => if (N.of_nat i <=? k) && (k <? N.of_nat (i + m)) then Some (N.to_nat k - i)%nat else None
  | None => None
  end.
Proof.
  unfold fails_round.
  destruct fail as [k|]; [|induction m as [|m IH]; intros i; cbn [first_failing]; [|rewrite IH]; reflexivity].
  induction m as [|m IH]; intros i; cbn [first_failing].
  - destruct (N.leb_spec (N.of_nat i) k); destruct (N.ltb_spec k (N.of_nat (i + 0))); try reflexivity. lia.
  - rewrite IH. destruct (N.eqb_spec (N.of_nat i) k) as [E|E].
    + destruct (N.leb_spec (N.of_nat i) k); destruct (N.ltb_spec k (N.of_nat (i + S m))); try lia.
      cbn [andb]. f_equal. lia.
    + destruct (N.leb_spec (N.of_nat i) k); destruct (N.leb_spec (N.of_nat (S i)) k); try lia; cbn [andb option_map]; try reflexivity.
      replace (S i + m)%nat with (i + S m)%nat by lia.
      destruct (k <? N.of_nat (i + S m)); cbn [option_map]; [f_equal; lia | reflexivity].
Qed.

(** the whole loop, in the closed form the models of the page loops use *)
Lemma first_failing_all {A} (fin ret : list gcall -> A) (ev : nat -> gcall) (count : N) (fail : option N) tr :
  match first_failing (fails_round fail) 0 (N.to_nat count) with
  | Some j => ret (evs ev 0 (S j) ++ tr)
  | None => fin (evs ev 0 (N.to_nat count) ++ tr)
  end =
  let n := match fail with Some k => if k <? count then k + 1 else count | None => count end in
  (if match fail with Some k => negb (k <? count) | None => true end then fin else ret) (evs ev 0 (N.to_nat n) ++ tr).
Proof.
  rewrite first_failing_at. destruct fail as [k|]; [|reflexivity]. cbn [N.of_nat Nat.add]. rewrite N2Nat.id.
  destruct (N.leb_spec 0 k); [|lia]. cbn [andb].
  destruct (k <? count); cbn [negb]; [|reflexivity].
  replace (S (N.to_nat k - 0)) with (N.to_nat (k + 1)) by lia. reflexivity.
Qed.
