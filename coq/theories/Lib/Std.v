(** Small facts that the standard library of Coq 8.16 lacks and that several directories use. *)
From Coq Require Import NArith List Lia.
Import ListNotations.

Lemma firstn_len_app {A} (l r : list A) : firstn (length l) (l ++ r) = l.
Proof. induction l as [|a l IH]; cbn; [destruct r; reflexivity|f_equal; exact IH]. Qed.

Lemma skipn_len_app {A} (l r : list A) : skipn (length l) (l ++ r) = r.
Proof. induction l as [|a l IH]; cbn; auto. Qed.

Lemma skipn_skipn' {A} (l : list A) : forall b a, skipn a (skipn b l) = skipn (b + a) l.
Proof. induction l as [|x l IH]; intros [|b] a; cbn; auto; destruct a; reflexivity. Qed.

Lemma skipn_nth_error_cons {A} : forall k (l : list A) x, nth_error l k = Some x -> skipn k l = x :: skipn (S k) l.
Proof.
  induction k as [|k IH]; intros [|y l] x H; try discriminate.
  - injection H as ->. reflexivity.
  - cbn [nth_error] in H. cbn [skipn]. apply IH. exact H.
Qed.

Lemma nth_skipn_add {A} (l : list A) : forall n i d, nth i (skipn n l) d = nth (n + i) l d.
Proof.
  induction l as [|x l IH]; intros [|n] i d; try reflexivity; [destruct i; reflexivity|].
  cbn [skipn Nat.add nth]. apply IH.
Qed.

Lemma succ_pos_inj i j : N.succ_pos i = N.succ_pos j -> i = j.
Proof. intros H. rewrite <- (N.pos_pred_succ i), H. apply N.pos_pred_succ. Qed.
