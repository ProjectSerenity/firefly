(** Facts relating the generated Go operations (Lib/GoOps.v) to the word operations of Lib/Word.v. *)
From Coq Require Import NArith Lia Bool.
From Coq Require Import ZifyBool ZifyN ZifyNat.
From FF Require Import Lib.Word Lib.GoOps Lib.GoOpsExt.
Local Open Scope N_scope.

Lemma gw64 x : gw 64 x = w64 x.
Proof. reflexivity. Qed.

Lemma gw64_small x : x < two64 -> gw 64 x = x.
Proof. exact (gw64_small' x). Qed.

Lemma gsub64_small a b : b <= a -> a < two64 -> gsub 64 a b = a - b.
Proof. exact (gsub64_small' a b). Qed.

Lemma testbit_high x n : x < two64 -> 64 <= n -> N.testbit x n = false.
Proof.
  intros Hx Hn. destruct (N.eq_dec x 0) as [->|Hne]; [apply N.bits_0|].
  apply N.bits_above_log2. apply N.log2_lt_pow2; [lia|].
  apply N.lt_le_trans with (2 ^ 64); [exact Hx|]. apply N.pow_le_mono_r; lia.
Qed.

(** [x & ^m] on uint64 is [x &^ m]. *)
Lemma land_gnot64 x m : x < two64 -> m < two64 -> N.land x (gnot 64 m) = N.ldiff x m.
Proof.
  intros Hx Hm. unfold gnot. rewrite (gw64_small m Hm). apply N.bits_inj. intros n.
  rewrite N.land_spec, N.lxor_spec, N.ldiff_spec.
  destruct (N.lt_ge_cases n 64) as [Hn|Hn].
  - rewrite N.ones_spec_low by exact Hn. destruct (N.testbit m n), (N.testbit x n); reflexivity.
  - rewrite N.ones_spec_high by exact Hn. rewrite (testbit_high x n Hx Hn). reflexivity.
Qed.
