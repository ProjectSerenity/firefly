(** Facts about the extended-mode operations of Lib/GoOps.v (the meaning gen/gotrans gives to loops,
    Go int, stores, slicing and copy): how [gloop] unfolds, that the signed operations agree with the
    unsigned ones on non-negative ints, and list-level specifications of [gset], [gslice], [gcopy]. *)
From Coq Require Import NArith ZArith Lia List Bool.
From Coq Require Import ZifyBool ZifyN ZifyNat.
From FF Require Import Lib.GoOps.
Import ListNotations.
Local Open Scope N_scope.
Ltac Zify.zify_post_hook ::= Z.div_mod_to_equations.

(** ---- gloop ---- *)
Lemma gloop_S {St R} fuel (step : St -> gres (gctl St R)) s :
  gloop (S fuel) step s =
  match step s with
  | GOk (GNext s') => gloop fuel step s'
  | GOk (GBreak s') => GOk (inl s')
  | GOk (GRet r) => GOk (inr r)
  | GPanic => GPanic
  | GFuel => GFuel
  end.
Proof. reflexivity. Qed.

Lemma gloop_next {St R} fuel (step : St -> gres (gctl St R)) s s' :
  step s = GOk (GNext s') -> gloop (S fuel) step s = gloop fuel step s'.
Proof. intros H. rewrite gloop_S, H. reflexivity. Qed.

Lemma gloop_break {St R} fuel (step : St -> gres (gctl St R)) s s' :
  step s = GOk (GBreak s') -> gloop (S fuel) step s = GOk (inl s').
Proof. intros H. rewrite gloop_S, H. reflexivity. Qed.

Lemma gloop_ret {St R} fuel (step : St -> gres (gctl St R)) s r :
  step s = GOk (GRet r) -> gloop (S fuel) step s = GOk (inr r).
Proof. intros H. rewrite gloop_S, H. reflexivity. Qed.

Lemma gloop_panic {St R} fuel (step : St -> gres (gctl St R)) s :
  step s = GPanic -> gloop (S fuel) step s = GPanic.
Proof. intros H. rewrite gloop_S, H. reflexivity. Qed.

(** a loop that ends (in whatever way) with some fuel ends the same way with more *)
Lemma gloop_more_fuel {St R} (step : St -> gres (gctl St R)) f1 : forall s f2,
  (f1 <= f2)%nat -> gloop f1 step s <> GFuel -> gloop f2 step s = gloop f1 step s.
Proof.
  induction f1 as [|f1 IH]; intros s f2 Hle Hne; [exfalso; apply Hne; reflexivity|].
  destruct f2 as [|f2]; [lia|]. rewrite !gloop_S in *.
  destruct (step s) as [[s'|s'|r]| |]; try reflexivity. apply IH; [lia|exact Hne].
Qed.

Lemma gloop_fuel_ok {St R} (step : St -> gres (gctl St R)) f1 f2 s r :
  gloop f1 step s = GOk r -> (f1 <= f2)%nat -> gloop f2 step s = GOk r.
Proof. intros H Hle. rewrite (gloop_more_fuel step f1 s f2 Hle); [exact H|rewrite H; discriminate]. Qed.

(** ---- Go int: non-negative values ---- *)
Definition two63 : N := 2 ^ 63.

Lemma gsbias64 x : gsbias 64 x = (x + 9223372036854775808) mod 18446744073709551616.
Proof. reflexivity. Qed.

(** the bias swaps the two halves of [0, 2^64) *)
Lemma gsbias64_small x : x < two63 -> gsbias 64 x = x + two63.
Proof.
  unfold two63. rewrite gsbias64. change (2 ^ 63) with 9223372036854775808. intros H.
  apply N.mod_small. lia.
Qed.

Lemma gsbias64_big x : two63 <= x -> x < 2 ^ 64 -> gsbias 64 x = x - two63.
Proof.
  unfold two63. rewrite gsbias64. change (2 ^ 63) with 9223372036854775808.
  change (2 ^ 64) with 18446744073709551616. intros H1 H2.
  replace (x + 9223372036854775808) with (x - 9223372036854775808 + 1 * 18446744073709551616) by lia.
  rewrite N.mod_add by discriminate. apply N.mod_small. lia.
Qed.

Lemma gslt_small a b : a < two63 -> b < two63 -> gslt 64 a b = (a <? b).
Proof.
  intros Ha Hb. unfold gslt. rewrite !gsbias64_small by assumption.
  destruct (N.ltb_spec a b); [apply N.ltb_lt|apply N.ltb_ge]; lia.
Qed.

Lemma gsle_small a b : a < two63 -> b < two63 -> gsle 64 a b = (a <=? b).
Proof.
  intros Ha Hb. unfold gsle. rewrite !gsbias64_small by assumption.
  destruct (N.leb_spec a b); [apply N.leb_le|apply N.leb_gt]; lia.
Qed.

(** a negative int (representative >= 2^63) is below every non-negative one *)
Lemma gslt_neg_nonneg a b : two63 <= a -> a < 2 ^ 64 -> b < two63 -> gslt 64 a b = true.
Proof.
  intros Ha Ha' Hb. unfold gslt. rewrite (gsbias64_big a), (gsbias64_small b) by assumption.
  change (2 ^ 64) with (two63 + two63) in Ha'. apply N.ltb_lt. lia.
Qed.

Lemma gslt_nonneg_neg a b : a < two63 -> two63 <= b -> b < 2 ^ 64 -> gslt 64 a b = false.
Proof.
  intros Ha Hb Hb'. unfold gslt. rewrite (gsbias64_small a), (gsbias64_big b) by assumption.
  change (2 ^ 64) with (two63 + two63) in Hb'. apply N.ltb_ge. lia.
Qed.

Lemma gslt_neg_neg a b : two63 <= a -> a < 2 ^ 64 -> two63 <= b -> b < 2 ^ 64 -> gslt 64 a b = (a <? b).
Proof.
  intros Ha Ha' Hb Hb'. unfold gslt. rewrite !gsbias64_big by assumption.
  destruct (N.ltb_spec a b); [apply N.ltb_lt|apply N.ltb_ge]; lia.
Qed.

Lemma gisneg_small x : x < two63 -> gisneg 64 x = false.
Proof. unfold two63, gisneg. intros H. change (2 ^ (64 - 1)) with (2 ^ 63). apply N.leb_gt. exact H. Qed.

Lemma gisneg_big x : two63 <= x -> gisneg 64 x = true.
Proof. unfold two63, gisneg. intros H. change (2 ^ (64 - 1)) with (2 ^ 63). apply N.leb_le. exact H. Qed.

Lemma gidxs_small l i : i < two63 -> gidxs 64 l i = gidx l i.
Proof. intros H. unfold gidxs. rewrite gisneg_small by exact H. reflexivity. Qed.

Lemma gsets_small l i v : i < two63 -> gsets 64 l i v = gset l i v.
Proof. intros H. unfold gsets. rewrite gisneg_small by exact H. reflexivity. Qed.

Lemma gslices_small l lo hi : lo < two63 -> hi < two63 -> gslices 64 l lo hi = gslice l lo hi.
Proof. intros H1 H2. unfold gslices. rewrite !gisneg_small by assumption. reflexivity. Qed.

Lemma gw_small bits x : x < 2 ^ bits -> gw bits x = x.
Proof. apply N.mod_small. Qed.

Lemma gsub_small bits a b : b <= a -> a < 2 ^ bits -> gsub bits a b = a - b.
Proof.
  intros Hb Ha. unfold gsub, gw. generalize dependent (2 ^ bits); intros W Ha.
  rewrite (N.mod_small b W) by lia. replace (a + W - b) with (a - b + 1 * W) by lia.
  rewrite N.mod_add by lia. apply N.mod_small. lia.
Qed.

Lemma gw64_small' x : x < 2 ^ 64 -> gw 64 x = x.
Proof. apply gw_small. Qed.

Lemma gsub64_small' a b : b <= a -> a < 2 ^ 64 -> gsub 64 a b = a - b.
Proof. apply gsub_small. Qed.

(** ---- reads and stores ---- *)
Lemma glen_length l : glen l = N.of_nat (length l).
Proof. reflexivity. Qed.

Lemma gidx_some l i : i < glen l -> gidx l i = Some (nth (N.to_nat i) l 0).
Proof.
  unfold gidx, glen. intros H. apply nth_error_nth'. lia.
Qed.

Lemma gidx_none l i : glen l <= i -> gidx l i = None.
Proof. unfold gidx, glen. intros H. apply nth_error_None. lia. Qed.

Lemma gset_some l i v : i < glen l ->
  gset l i v = Some (firstn (N.to_nat i) l ++ v :: skipn (S (N.to_nat i)) l).
Proof. intros H. unfold gset. destruct (N.ltb_spec i (glen l)); [reflexivity|lia]. Qed.

Lemma gset_none l i v : glen l <= i -> gset l i v = None.
Proof. intros H. unfold gset. destruct (N.ltb_spec i (glen l)); [lia|reflexivity]. Qed.

Lemma upd_length {A} (v : A) : forall n (l : list A), (n < length l)%nat ->
  length (firstn n l ++ v :: skipn (S n) l) = length l.
Proof.
  induction n as [|n IH]; intros [|x l] H; cbn [length] in *; try lia.
  - reflexivity.
  - change (S (length (firstn n l ++ v :: skipn (S n) l)) = S (length l)). f_equal. apply IH. lia.
Qed.

Lemma gset_length l i v l' : gset l i v = Some l' -> length l' = length l.
Proof.
  unfold gset, glen. destruct (N.ltb_spec i (N.of_nat (length l))) as [H|H]; [|discriminate].
  intros E. injection E as <-. apply upd_length. lia.
Qed.

Lemma gset_nth l i v l' j : gset l i v = Some l' ->
  nth j l' 0 = if Nat.eqb j (N.to_nat i) then v else nth j l 0.
Proof.
  unfold gset, glen. destruct (N.ltb_spec i (N.of_nat (length l))) as [H|H]; [|discriminate].
  intros E. injection E as <-.
  destruct (Nat.eqb_spec j (N.to_nat i)) as [->|Hne].
  - rewrite app_nth2; rewrite firstn_length; [|lia].
    replace (N.to_nat i - Nat.min (N.to_nat i) (length l))%nat with 0%nat by lia. reflexivity.
  - destruct (Nat.lt_ge_cases j (N.to_nat i)) as [Hlt|Hge].
    + rewrite app_nth1 by (rewrite firstn_length; lia).
      rewrite <- (firstn_skipn (N.to_nat i) l) at 2. rewrite app_nth1 by (rewrite firstn_length; lia). reflexivity.
    + rewrite app_nth2; rewrite firstn_length; [|lia].
      replace (Nat.min (N.to_nat i) (length l)) with (N.to_nat i) by lia.
      destruct (j - N.to_nat i)%nat as [|q] eqn:Eq; [lia|]. cbn [nth].
      rewrite <- (firstn_skipn (S (N.to_nat i)) l) at 2.
      rewrite app_nth2; rewrite firstn_length; [|lia].
      f_equal. lia.
Qed.

(** ---- slicing, copy ---- *)
Lemma skipn_seq' : forall s a len, skipn s (seq a len) = seq (a + s) (len - s).
Proof.
  induction s as [|s IH]; intros a len.
  - rewrite Nat.add_0_r, Nat.sub_0_r. reflexivity.
  - destruct len as [|len]; [reflexivity|]. cbn [seq skipn]. rewrite IH. f_equal; lia.
Qed.

Lemma firstn_seq' : forall n a len, (n <= len)%nat -> firstn n (seq a len) = seq a n.
Proof.
  induction n as [|n IH]; intros a len H; [reflexivity|].
  destruct len as [|len]; [lia|]. cbn [seq firstn]. f_equal. apply IH. lia.
Qed.

Lemma firstn_skipn_seq len a s n : (s + n <= len)%nat -> firstn n (skipn s (seq a len)) = seq (a + s) n.
Proof. intros H. rewrite skipn_seq'. apply firstn_seq'. lia. Qed.

Lemma map_seq_shift_add {A} (f : nat -> A) a : forall n b,
  map f (seq (a + b) n) = map (fun k => f (a + k)%nat) (seq b n).
Proof.
  induction n as [|n IH]; intros b; [reflexivity|].
  cbn [seq map]. f_equal. rewrite <- IH. f_equal. f_equal. lia.
Qed.

(** slicing a table [map f (seq 0 len)] *)
Lemma gslice_map_seq (f : nat -> N) len lo hi : lo <= hi -> hi <= N.of_nat len ->
  gslice (map f (seq 0 len)) lo hi = Some (map (fun k => f (N.to_nat lo + k)%nat) (seq 0 (N.to_nat (hi - lo)))).
Proof.
  intros H1 H2. unfold gslice, glen. rewrite map_length, seq_length.
  destruct (N.leb_spec lo hi); [|lia]. destruct (N.leb_spec hi (N.of_nat len)); [|lia]. cbn [andb].
  f_equal. rewrite skipn_map, firstn_map, firstn_skipn_seq by lia. cbn [Nat.add].
  rewrite <- (Nat.add_0_r (N.to_nat lo)) at 1. apply map_seq_shift_add.
Qed.

Lemma gcopy_short dst src : (length src <= length dst)%nat -> gcopy dst src = src ++ skipn (length src) dst.
Proof.
  intros H. unfold gcopy. rewrite Nat.min_r by exact H. rewrite firstn_all. reflexivity.
Qed.
