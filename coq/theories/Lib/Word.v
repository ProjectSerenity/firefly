(** Machine words as [N] with explicit wrap-around (DESIGN.md section 4). *)
From Coq Require Import NArith ZArith Lia List Bool.
From Coq Require Import ZifyBool ZifyN ZifyNat.
Import ListNotations.
Local Open Scope N_scope.

Ltac Zify.zify_post_hook ::= Z.div_mod_to_equations.

Definition two64 : N := 0x10000000000000000.
Definition two32 : N := 0x100000000.
Definition two16 : N := 0x10000.
Definition two8  : N := 0x100.

Definition w64 (x : N) : N := x mod two64.
Definition w32 (x : N) : N := x mod two32.
Definition w16 (x : N) : N := x mod two16.
Definition w8  (x : N) : N := x mod two8.

Definition add64 (a b : N) : N := w64 (a + b).
Definition sub64 (a b : N) : N := w64 (a + two64 - w64 b).
Definition mul64 (a b : N) : N := w64 (a * b).
Definition shl64 (a k : N) : N := w64 (N.shiftl a k).
Definition add32 (a b : N) : N := w32 (a + b).
Definition sub32 (a b : N) : N := w32 (a + two32 - w32 b).
Definition mul32 (a b : N) : N := w32 (a * b).

(** [x &^ m] for 64-bit words: clearing the bits of [m]. *)
Definition andnot (x m : N) : N := N.ldiff x m.

Lemma two64_eq : two64 = 2 ^ 64. Proof. reflexivity. Qed.
Lemma two32_eq : two32 = 2 ^ 32. Proof. reflexivity. Qed.

Lemma w64_lt x : w64 x < two64.
Proof. unfold w64. apply N.mod_lt. discriminate. Qed.

Lemma w64_small x : x < two64 -> w64 x = x.
Proof. intros H. unfold w64. apply N.mod_small; exact H. Qed.

Lemma w32_lt x : w32 x < two32.
Proof. unfold w32. apply N.mod_lt. discriminate. Qed.

Lemma w32_small x : x < two32 -> w32 x = x.
Proof. intros H. unfold w32. apply N.mod_small; exact H. Qed.

(** Clearing the low [k] bits is rounding down to a multiple of [2^k]. *)
Lemma ldiff_ones_mod (x k : N) : N.ldiff x (N.ones k) = x - x mod 2 ^ k.
Proof.
  rewrite N.ldiff_ones_r, N.shiftr_div_pow2, N.shiftl_mul_pow2.
  assert (Hnz: 2 ^ k <> 0) by (apply N.pow_nonzero; discriminate).
  pose proof (N.div_mod x (2 ^ k) Hnz) as H.
  generalize dependent (x / 2 ^ k). generalize (x mod 2 ^ k). generalize dependent (2 ^ k).
  intros p _ r q H. rewrite H at 1. rewrite N.add_sub. apply N.mul_comm.
Qed.

Lemma ones_pred_pow2 k : N.ones k = 2 ^ k - 1.
Proof. rewrite N.ones_equiv. lia. Qed.

Lemma andnot_pow2 (x k : N) : andnot x (2 ^ k - 1) = x - x mod 2 ^ k.
Proof. unfold andnot. rewrite <- ones_pred_pow2. apply ldiff_ones_mod. Qed.

Lemma land_ones_mod (x k : N) : N.land x (2 ^ k - 1) = x mod 2 ^ k.
Proof. rewrite <- ones_pred_pow2. apply N.land_ones. Qed.

Lemma land255_lt x : N.land x 0xff < 256.
Proof. change 0xff with (N.ones 8). rewrite N.land_ones. apply N.mod_lt. discriminate. Qed.

Lemma pow256 n : 256 ^ n = 2 ^ (8 * n).
Proof. rewrite N.pow_mul_r. reflexivity. Qed.
