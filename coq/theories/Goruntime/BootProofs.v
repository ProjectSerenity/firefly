(** Proofs about Goruntime/Boot.v (sysReserve / sysMap / sysAlloc), composed with the theorems about
    EarlyReserveRegion in Vmm/RegionProofs.v (C07). *)
From Coq Require Import NArith ZArith Lia List Bool.
From Coq Require Import ZifyBool ZifyN ZifyNat.
From FF Require Import Lib.Word Gen.Consts_mm_vmm Vmm.Region Vmm.RegionProofs Goruntime.Boot.
Import ListNotations.
Local Open Scope N_scope.

(** ---- the rounding expressions, word for word ---- *)

(** [(size + PageSize - 1)]: an addition and a subtraction modulo 2^64 give [size + 4095] modulo 2^64. *)
Lemma rt_round_up_eq s : s < two64 -> rt_round_up s = round_up s.
Proof.
  intros Hs. unfold rt_round_up, round_up. f_equal.
  unfold sub64, add64, w64. rewrite PageSize_val. unfold two64 in *. lia.
Qed.

Lemma start_addr_eq a : andnot (add64 a (PageSize - 1)) (PageSize - 1) = round_up a.
Proof. reflexivity. Qed.

Lemma temp_val : vmm_tempMappingAddr = 0xffffff7ffffff000.
Proof. reflexivity. Qed.

Lemma page_of_round_up a : a + 4095 < two64 -> page_of_addr (round_up a) = ceil_pages a.
Proof.
  intros H. rewrite (round_up_nowrap a H).
  assert (Hm: (ceil_pages a * 4096) mod 4096 = 0) by (apply N.mod_mul; discriminate).
  assert (Hl: ceil_pages a * 4096 < two64) by (unfold ceil_pages, two64 in *; lia).
  destruct (page_of_addr_aligned _ Hm Hl) as [P1 _]. rewrite P1. apply N.div_mul. discriminate.
Qed.

Lemma cow_flags_val : cow_flags = N.lor (N.lor vmm_FlagPresent vmm_FlagNoExecute) vmm_FlagCopyOnWrite /\ N.land cow_flags vmm_FlagRW = 0.
Proof. split; reflexivity. Qed.

Lemma alloc_flags_val : alloc_flags = N.lor (N.lor vmm_FlagPresent vmm_FlagNoExecute) vmm_FlagRW.
Proof. reflexivity. Qed.

(** ---- the reservation made by sysReserve / sysAlloc is the reservation EarlyReserveRegion makes for the raw size ---- *)

Lemma reserve_spec_wrap last s :
  last <= vmm_tempMappingAddr -> two64 <= s + 4095 -> reserve_spec last s = None.
Proof.
  intros Hl H. unfold reserve_spec.
  destruct (N.leb_spec (ceil_pages s * 4096) last) as [H2|H2]; [|reflexivity].
  exfalso. rewrite temp_val in Hl. unfold ceil_pages, two64 in *. lia.
Qed.

Lemma reserve_spec_some last s a len :
  last <= vmm_tempMappingAddr -> reserve_spec last s = Some (a, len) ->
  s + 4095 < two64 /\ len = ceil_pages s * 4096 /\ a + len = last /\ round_up s = len.
Proof.
  intros Hl. unfold reserve_spec.
  destruct (N.leb_spec (ceil_pages s * 4096) last) as [H|H]; [|discriminate].
  intros E; injection E as <- <-.
  assert (Hs: s + 4095 < two64) by (rewrite temp_val in Hl; unfold ceil_pages, two64 in *; lia).
  repeat split; try lia. apply round_up_nowrap; exact Hs.
Qed.

Lemma sys_reserve_spec last s :
  s < two64 -> last <= vmm_tempMappingAddr ->
  sys_reserve true last s =
    match reserve_spec last s with
    | Some (a, _) => (a, Ret a, true)
    | None => (last, PanicErr, false)
    end.
Proof.
  intros Hs Hl. unfold sys_reserve. rewrite (rt_round_up_eq s Hs), (round_up_ltb s Hs). cbn [andb].
  destruct (N.leb_spec two64 (s + 4095)) as [H|H].
  - rewrite (reserve_spec_wrap last s Hl H). reflexivity.
  - rewrite (early_reserve_rounded last s H), (early_reserve_spec last s Hs Hl).
    destruct (reserve_spec last s) as [[a len]|]; reflexivity.
Qed.

(** ---- sysMap ---- *)

(** [n] consecutive pages from [page], every one to the zero frame with the copy-on-write flags *)
Definition zero_calls (page zf n : N) : list ev :=
  map (fun i => EMap (page + N.of_nat i) zf cow_flags) (seq 0 (N.to_nat n)).

Lemma zero_loop_calls page zf count n fail :
  page + n <= two64 ->
  n = match fail with Some k => if k <? count then k + 1 else count | None => count end ->
  fst (zero_loop page zf count fail) = zero_calls page zf n.
Proof.
  intros Hb Hn. unfold zero_loop, zero_calls. cbn [fst]. rewrite <- Hn.
  apply map_ext_in. intros i Hi. apply in_seq in Hi. rewrite w64_small by lia. reflexivity.
Qed.

Lemma sys_map_not_reserved chk zf stat addr size fail :
  sys_map chk zf stat addr size false fail = (stat, PanicNotReserved, []).
Proof. reflexivity. Qed.

Lemma sys_map_wrap zf stat addr size fail :
  size < two64 -> two64 <= size + 4095 ->
  sys_map true zf stat addr size true fail = (stat, Ret 0, []).
Proof.
  intros Hs H. unfold sys_map. cbn [negb]. rewrite (rt_round_up_eq size Hs), (round_up_ltb size Hs).
  apply N.leb_le in H. rewrite H. reflexivity.
Qed.

Lemma ceil_pages_bound s : s + 4095 < two64 -> ceil_pages s <= 0x10000000000000.
Proof. intros H. unfold ceil_pages, two64 in *. lia. Qed.

Lemma sys_map_spec zf stat addr size fail :
  addr + 4095 < two64 -> size + 4095 < two64 ->
  sys_map true zf stat addr size true fail =
    let all := (add64 stat (ceil_pages size * 4096), Ret (ceil_pages addr * 4096),
                zero_calls (ceil_pages addr) zf (ceil_pages size)) in
    match fail with
    | Some k => if k <? ceil_pages size then (stat, Ret 0, zero_calls (ceil_pages addr) zf (k + 1)) else all
    | None => all
    end.
Proof.
  intros Ha Hs. unfold sys_map. cbn [negb].
  assert (Hs': size < two64) by lia.
  rewrite (rt_round_up_eq size Hs'), (round_up_ltb size Hs'), start_addr_eq.
  replace (two64 <=? size + 4095) with false by (symmetry; apply N.leb_gt; exact Hs). cbn [andb].
  rewrite (shiftr_round_up size Hs), (page_of_round_up addr Ha), (round_up_nowrap size Hs), (round_up_nowrap addr Ha).
  pose proof (ceil_pages_bound _ Ha) as B1. pose proof (ceil_pages_bound _ Hs) as B2.
  set (n := match fail with Some k => if k <? ceil_pages size then k + 1 else ceil_pages size | None => ceil_pages size end).
  assert (Hn : n <= ceil_pages size).
  { unfold n. destruct fail as [k|]; [|lia]. destruct (N.ltb_spec k (ceil_pages size)); lia. }
  pose proof (zero_loop_calls (ceil_pages addr) zf (ceil_pages size) n fail ltac:(unfold two64; lia) eq_refl) as Hc.
  unfold zero_loop in *. cbn [fst] in Hc. rewrite Hc.
  destruct fail as [k|]; [|reflexivity]. unfold n. destruct (k <? ceil_pages size); reflexivity.
Qed.

(** Whatever the arguments and whether or not the round-up is checked: every mapping sysMap asks for names
    the zero frame with exactly Present|NoExecute|CopyOnWrite - never FlagRW (C06's zero-frame clause). *)
Lemma sys_map_zero_frame_readonly chk zf stat addr size r fail e :
  In e (snd (sys_map chk zf stat addr size r fail)) ->
  exists page, e = EMap page zf cow_flags.
Proof.
  unfold sys_map. destruct (negb r); [intros []|].
  destruct (chk && _); [intros []|].
  unfold zero_loop.
  match goal with |- context [if ?b then _ else _] => destruct b end; cbn [snd];
    intros Hin; apply in_map_iff in Hin as (i & <- & _); eauto.
Qed.

(** ---- sysAlloc ---- *)

(** the rounds of the loop: allocate a frame, map the next page to it, clear that page *)
Fixpoint rounds (page : N) (fs : list N) : list ev :=
  match fs with
  | [] => []
  | f :: rest => EAlloc (Some f) :: EMap page f alloc_flags :: EMemset (page * 4096) 0 4096 :: rounds (page + 1) rest
  end.

Definition maps_of (t : list ev) : list (N * N * N) :=
  flat_map (fun e => match e with EMap p f fl => [(p, f, fl)] | _ => [] end) t.
Definition memsets_of (t : list ev) : list (N * N * N) :=
  flat_map (fun e => match e with EMemset a v s => [(a, v, s)] | _ => [] end) t.
Definition allocs_of (t : list ev) : list (option N) :=
  flat_map (fun e => match e with EAlloc r => [r] | _ => [] end) t.

Fixpoint pages_frames (page : N) (fs : list N) : list (N * N * N) :=
  match fs with [] => [] | f :: rest => (page, f, alloc_flags) :: pages_frames (page + 1) rest end.

Lemma rounds_maps page fs : maps_of (rounds page fs) = pages_frames page fs.
Proof. revert page. induction fs as [|f rest IH]; intros page; cbn; [reflexivity|]. f_equal. apply IH. Qed.

Lemma rounds_allocs page fs : allocs_of (rounds page fs) = map Some fs.
Proof. revert page. induction fs as [|f rest IH]; intros page; cbn; [reflexivity|]. f_equal. apply IH. Qed.

Fixpoint page_clears (page : N) (n : nat) : list (N * N * N) :=
  match n with O => [] | S n => (page * 4096, 0, 4096) :: page_clears (page + 1) n end.

Lemma rounds_memsets page fs : memsets_of (rounds page fs) = page_clears page (length fs).
Proof. revert page. induction fs as [|f rest IH]; intros page; cbn; [reflexivity|]. f_equal. apply IH. Qed.

Lemma pages_frames_nth page fs i f :
  nth_error fs i = Some f -> nth_error (pages_frames page fs) i = Some (page + N.of_nat i, f, alloc_flags).
Proof.
  revert page i. induction fs as [|g rest IH]; intros page i H; destruct i as [|i]; cbn in *; try discriminate.
  - injection H as <-. rewrite N.add_0_r. reflexivity.
  - rewrite (IH (page + 1) i H). do 3 f_equal. lia.
Qed.

Lemma pages_frames_length page fs : length (pages_frames page fs) = length fs.
Proof. revert page. induction fs as [|g rest IH]; intros page; cbn; [reflexivity|]. f_equal. apply IH. Qed.

Lemma alloc_loop_zero page frames k fail : alloc_loop page 0 frames k fail = ([], true).
Proof. destruct frames; reflexivity. Qed.

Lemma alloc_loop_pos page count frames k fail : count <> 0 ->
  alloc_loop page count frames k fail =
  match frames with
  | [] | None :: _ => ([EAlloc None], false)
  | Some f :: rest =>
      if fails_at fail k then ([EAlloc (Some f); EMap page f alloc_flags], false)
      else let '(t, ok) := alloc_loop (w64 (page + 1)) (count - 1) rest (k + 1) fail in
           (EAlloc (Some f) :: EMap page f alloc_flags :: EMemset (shl64 page PageShift) 0 PageSize :: t, ok)
  end.
Proof. intros H. apply N.eqb_neq in H. destruct frames as [|[f|] r]; cbn [alloc_loop]; rewrite H; reflexivity. Qed.

Lemma alloc_loop_app fs : forall page count rest k fail,
  N.of_nat (length fs) <= count -> page + count <= 0x10000000000000 ->
  (forall j, fail = Some j -> j < k \/ k + N.of_nat (length fs) <= j) ->
  alloc_loop page count (map Some fs ++ rest) k fail =
    let '(t, ok) := alloc_loop (page + N.of_nat (length fs)) (count - N.of_nat (length fs)) rest (k + N.of_nat (length fs)) fail in
    (rounds page fs ++ t, ok).
Proof.
  induction fs as [|f fs IH]; intros page count rest k fail Hc Hb Hf.
  - cbn [length map app rounds N.of_nat]. rewrite !N.add_0_r, N.sub_0_r.
    destruct (alloc_loop page count rest k fail); reflexivity.
  - cbn [length] in *. cbn [map app alloc_loop].
    replace (count =? 0) with false by (symmetry; apply N.eqb_neq; lia).
    assert (Hk: fails_at fail k = false).
    { destruct fail as [j|]; [|reflexivity]. cbn. apply N.eqb_neq. destruct (Hf j eq_refl); lia. }
    rewrite Hk. rewrite (w64_small (page + 1)) by (unfold two64; lia).
    rewrite (IH (page + 1) (count - 1) rest (k + 1) fail); try lia.
    2:{ intros j Hj. destruct (Hf j Hj); lia. }
    replace (page + 1 + N.of_nat (length fs)) with (page + N.of_nat (S (length fs))) by lia.
    replace (count - 1 - N.of_nat (length fs)) with (count - N.of_nat (S (length fs))) by lia.
    replace (k + 1 + N.of_nat (length fs)) with (k + N.of_nat (S (length fs))) by lia.
    destruct (alloc_loop _ _ rest _ fail) as [t ok].
    cbn [rounds app]. rewrite PageSize_val.
    replace (shl64 page PageShift) with (page * 4096); [reflexivity|].
    unfold shl64. rewrite N.shiftl_mul_pow2. change (2 ^ PageShift) with 4096. rewrite w64_small; [reflexivity|unfold two64; lia].
Qed.

(** What sysAlloc does, given what the reservation of C07 is for this cursor and size. *)
Section SysAlloc.
  Variables (last stat s a len : N).
  Hypothesis Hs : s < two64.
  Hypothesis Hstart : WFstart last.
  Hypothesis Hres : reserve_spec last s = Some (a, len).

  Lemma sys_alloc_unfold frames fail :
    sys_alloc true last stat s frames fail =
      let '(t, ok) := alloc_loop (a / 4096) (ceil_pages s) frames 0 fail in
      if ok then (a, add64 stat len, Ret a, t, Some a) else (a, stat, Ret 0, t, Some a).
  Proof.
    destruct Hstart as [Hm Hl].
    destruct (reserve_spec_some last s a len Hl Hres) as (Hn & Hlen & Hsum & Hr).
    unfold sys_alloc. rewrite (rt_round_up_eq s Hs), (round_up_ltb s Hs).
    replace (two64 <=? s + 4095) with false by (symmetry; apply N.leb_gt; exact Hn). cbn [andb].
    rewrite (early_reserve_rounded last s Hn), (early_reserve_spec last s Hs Hl), Hres.
    rewrite (shiftr_round_up s Hn), Hr.
    rewrite PageSize_val in Hm.
    assert (Ha: a mod 4096 = 0) by lia.
    assert (Hlt: a < two64) by (rewrite temp_val in Hl; unfold two64; lia).
    destruct (page_of_addr_aligned a Ha Hlt) as [P1 _]. rewrite P1. reflexivity.
  Qed.

  Lemma sys_alloc_bounds : a / 4096 + ceil_pages s <= 0x10000000000000 /\ a mod 4096 = 0 /\ len = ceil_pages s * 4096.
  Proof.
    destruct Hstart as [Hm Hl].
    destruct (reserve_spec_some last s a len Hl Hres) as (Hn & Hlen & Hsum & Hr).
    rewrite PageSize_val in Hm. rewrite temp_val in Hl. lia.
  Qed.

  (** every frame request is answered and no mapping fails: the region is mapped page by page to exactly
      the frames handed out, each page cleared right after it is mapped *)
  Lemma sys_alloc_ok fs rest fail :
    N.of_nat (length fs) = ceil_pages s ->
    (forall k, fail = Some k -> ceil_pages s <= k) ->
    sys_alloc true last stat s (map Some fs ++ rest) fail = (a, add64 stat len, Ret a, rounds (a / 4096) fs, Some a).
  Proof.
    intros Hn Hf. rewrite sys_alloc_unfold. destruct sys_alloc_bounds as (B & _ & _).
    rewrite alloc_loop_app; try lia.
    2:{ intros j Hj. right. specialize (Hf j Hj). lia. }
    rewrite Hn, N.sub_diag, alloc_loop_zero, app_nil_r. reflexivity.
  Qed.

  (** the allocator fails at round j (error answer or nothing left): j pages stay mapped, 0 is returned *)
  Lemma sys_alloc_oom fs tail fail :
    N.of_nat (length fs) < ceil_pages s ->
    (tail = [] \/ exists rest, tail = None :: rest) ->
    (forall k, fail = Some k -> N.of_nat (length fs) <= k) ->
    sys_alloc true last stat s (map Some fs ++ tail) fail = (a, stat, Ret 0, rounds (a / 4096) fs ++ [EAlloc None], Some a).
  Proof.
    intros Hn Ht Hf. rewrite sys_alloc_unfold. destruct sys_alloc_bounds as (B & _ & _).
    rewrite alloc_loop_app; try lia.
    2:{ intros j Hj. right. specialize (Hf j Hj). lia. }
    assert (E: alloc_loop (a / 4096 + N.of_nat (length fs)) (ceil_pages s - N.of_nat (length fs)) tail (0 + N.of_nat (length fs)) fail = ([EAlloc None], false)).
    { destruct Ht as [->|[rest ->]]; cbn [alloc_loop];
        replace (ceil_pages s - N.of_nat (length fs) =? 0) with false by (symmetry; apply N.eqb_neq; lia); reflexivity. }
    rewrite E. reflexivity.
  Qed.

  (** mapping call k fails: k pages stay mapped, frame k was taken from the allocator, 0 is returned *)
  Lemma sys_alloc_map_fail fs f rest :
    N.of_nat (length fs) < ceil_pages s ->
    sys_alloc true last stat s (map Some fs ++ Some f :: rest) (Some (N.of_nat (length fs))) =
      (a, stat, Ret 0, rounds (a / 4096) fs ++ [EAlloc (Some f); EMap (a / 4096 + N.of_nat (length fs)) f alloc_flags], Some a).
  Proof.
    intros Hn. rewrite sys_alloc_unfold. destruct sys_alloc_bounds as (B & _ & _).
    rewrite alloc_loop_app; try lia.
    2:{ intros j Hj. injection Hj as <-. right. lia. }
    cbn [alloc_loop].
    replace (ceil_pages s - N.of_nat (length fs) =? 0) with false by (symmetry; apply N.eqb_neq; lia).
    cbn [fails_at]. rewrite N.add_0_l, N.eqb_refl. reflexivity.
  Qed.
End SysAlloc.

Lemma sys_alloc_no_fit last stat s frames fail :
  s < two64 -> last <= vmm_tempMappingAddr -> reserve_spec last s = None ->
  sys_alloc true last stat s frames fail = (last, stat, Ret 0, [], None).
Proof.
  intros Hs Hl Hres. unfold sys_alloc. rewrite (rt_round_up_eq s Hs), (round_up_ltb s Hs).
  destruct (N.leb_spec two64 (s + 4095)) as [H|H]; [reflexivity|]. cbn [andb].
  rewrite (early_reserve_rounded last s H), (early_reserve_spec last s Hs Hl), Hres. reflexivity.
Qed.

Lemma sys_alloc_reserves last stat s frames fail :
  s < two64 -> last <= vmm_tempMappingAddr ->
  let '(l, _, _, _, rsv) := sys_alloc true last stat s frames fail in
  match reserve_spec last s with
  | Some (a, _) => l = a /\ rsv = Some a
  | None => l = last /\ rsv = None
  end.
Proof.
  intros Hs Hl. unfold sys_alloc. rewrite (rt_round_up_eq s Hs), (round_up_ltb s Hs).
  destruct (N.leb_spec two64 (s + 4095)) as [H|H].
  - cbn [andb]. rewrite (reserve_spec_wrap last s Hl H). split; reflexivity.
  - cbn [andb]. rewrite (early_reserve_rounded last s H), (early_reserve_spec last s Hs Hl).
    destruct (reserve_spec last s) as [[a len]|]; [|split; reflexivity].
    destruct (alloc_loop _ _ frames 0 fail) as [t ok]. destruct ok; split; reflexivity.
Qed.

(** Sizes within a page of 2^64: all three refuse, nothing is reserved, mapped or counted. *)
Lemma rt_wrap_rejected zf last stat addr s frames fail :
  s < two64 -> two64 <= s + 4095 ->
  sys_reserve true last s = (last, PanicErr, false) /\
  sys_alloc true last stat s frames fail = (last, stat, Ret 0, [], None) /\
  sys_map true zf stat addr s true fail = (stat, Ret 0, []).
Proof.
  intros Hs H. split; [|split].
  - unfold sys_reserve. rewrite (rt_round_up_eq s Hs), (round_up_ltb s Hs). apply N.leb_le in H. rewrite H. reflexivity.
  - unfold sys_alloc. rewrite (rt_round_up_eq s Hs), (round_up_ltb s Hs). apply N.leb_le in H. rewrite H. reflexivity.
  - apply sys_map_wrap; assumption.
Qed.

(** ---- histories: the reservations of a sysReserve / sysMap / sysAlloc history ARE the reservations of the
    EarlyReserveRegion history obtained by forgetting everything but the sizes ---- *)
Definition rop_size (o : rop) : N :=
  match o with RSysReserve s | RSysMap _ s _ _ | RSysAlloc s _ _ => s end.

Definition WFrop (o : rop) : Prop := rop_size o < two64.

Definition rt_abs1 (o : rop) : list op :=
  match o with
  | RSysReserve s | RSysAlloc s _ _ => [Reserve s]
  | RSysMap _ _ _ _ => []
  end.

Definition rt_abs (ops : list rop) : list op := flat_map rt_abs1 ops.

(** the regions as the calls themselves report them: (address obtained, regionSize, requested size) *)
Fixpoint rt_regions (zf : N) (st : rstate) (ops : list rop) : list (N * N * N) :=
  match ops with
  | [] => []
  | o :: rest =>
      let '(st', r) := rstep true zf st o in
      match r_rsv r with
      | Some a => (a, r_size r, rop_size o) :: rt_regions zf st' rest
      | None => rt_regions zf st' rest
      end
  end.

Lemma WFop_abs ops : Forall WFrop ops -> Forall WFop (rt_abs ops).
Proof.
  induction 1 as [|o rest Ho _ IH]; cbn; [constructor|].
  apply Forall_app. split; [|exact IH].
  destruct o; cbn; repeat constructor; exact Ho.
Qed.

Lemma reserve_step_le last s :
  s < two64 -> last <= vmm_tempMappingAddr -> fst (step last (Reserve s)) <= last.
Proof.
  intros Hs Hl. rewrite step_cursor by assumption. cbn [op_region]. unfold reserve_spec.
  destruct (N.leb_spec (ceil_pages s * 4096) last); lia.
Qed.

Lemma rt_regions_eq zf ops : forall last stat,
  Forall WFrop ops -> last <= vmm_tempMappingAddr ->
  rt_regions zf (last, stat) ops = regions last (rt_abs ops).
Proof.
  induction ops as [|o rest IH]; intros last stat Hwf Hl; [reflexivity|].
  inversion Hwf as [|? ? Ho Hrest]; subst. unfold WFrop in Ho.
  cbn [rt_regions rt_abs flat_map]. fold (rt_abs rest).
  destruct o as [s|ad s r fail|s frames fail]; cbn [rop_size] in Ho.
  - (* sysReserve *)
    cbn [rstep rt_abs1 app regions]. rewrite (sys_reserve_spec last s Ho Hl).
    rewrite (step_cursor last (Reserve s) Ho Hl). cbn [op_region].
    destruct (reserve_spec last s) as [[a len]|] eqn:E; cbn [r_rsv r_size rop_size].
    + destruct (reserve_spec_some last s a len Hl E) as (Hn & Hlen & Hsum & Hr).
      rewrite (rt_round_up_eq s Ho), Hr. f_equal. apply IH; [assumption|lia].
    + apply IH; assumption.
  - (* sysMap: no reservation, cursor untouched *)
    cbn [rstep rt_abs1 app]. destruct (sys_map true zf stat ad s r fail) as [[stat' out] t].
    cbn [r_rsv]. apply IH; assumption.
  - (* sysAlloc *)
    cbn [rstep rt_abs1 app regions].
    pose proof (sys_alloc_reserves last stat s frames fail Ho Hl) as Hr.
    destruct (sys_alloc true last stat s frames fail) as [[[[l stat'] out] t] rsv].
    rewrite (step_cursor last (Reserve s) Ho Hl). cbn [op_region r_rsv r_size rop_size].
    destruct (reserve_spec last s) as [[a len]|] eqn:E; destruct Hr as [-> ->].
    + destruct (reserve_spec_some last s a len Hl E) as (Hn & Hlen & Hsum & Hrr).
      rewrite (rt_round_up_eq s Ho), Hrr. f_equal. apply IH; [assumption|lia].
    + apply IH; assumption.
Qed.

Lemma rt_history zf l0 stat ops :
  WFstart l0 -> Forall WFrop ops ->
  let regs := rt_regions zf (l0, stat) ops in
  regs = regions l0 (rt_abs ops) /\
  Forall region_ok regs /\ Forall (below l0) regs /\
  ForallOrdPairs (fun earlier later => below (fst (fst earlier)) later) regs.
Proof.
  intros Hst Hwf. cbv zeta. rewrite (rt_regions_eq zf ops l0 stat Hwf (proj2 Hst)).
  split; [reflexivity|]. exact (regions_inv (rt_abs ops) l0 (WFop_abs ops Hwf) Hst).
Qed.

(** what the caller of sysReserve sees *)
Lemma sys_reserve_result zf last stat s :
  s < two64 -> last <= vmm_tempMappingAddr ->
  rstep true zf (last, stat) (RSysReserve s) =
    match op_region last (Reserve s) with
    | Some (a, len, _) => ((a, stat), mk_rres (Ret a) true [] (Some a) len)
    | None => ((last, stat), mk_rres PanicErr false [] None (rt_round_up s))
    end.
Proof.
  intros Hs Hl. cbn [rstep op_region]. rewrite (sys_reserve_spec last s Hs Hl).
  destruct (reserve_spec last s) as [[a len]|] eqn:E; [|reflexivity].
  destruct (reserve_spec_some last s a len Hl E) as (Hn & Hlen & Hsum & Hr).
  rewrite (rt_round_up_eq s Hs), Hr. reflexivity.
Qed.

(** Along every history the cursor stays page aligned and at or below the temporary-mapping page, so the
    per-call statements (which assume exactly that of the cursor they start from) apply to every call. *)
Lemma rstep_wf zf last stat o :
  WFstart last -> WFrop o -> WFstart (fst (fst (rstep true zf (last, stat) o))).
Proof.
  intros Hst Ho. pose proof Hst as [Hm Hl]. unfold WFrop in Ho.
  assert (Hres: forall s a len, s < two64 -> reserve_spec last s = Some (a, len) -> WFstart a).
  { intros s a len Hs E. destruct (reserve_spec_ok last s a len Hs Hm Hl E) as (Hok & Hsum & Hle).
    unfold region_ok in Hok. split; [tauto|lia]. }
  destruct o as [s|ad s r fail|s frames fail]; cbn [rop_size] in Ho; cbn [rstep].
  - rewrite (sys_reserve_spec last s Ho Hl).
    destruct (reserve_spec last s) as [[a len]|] eqn:E; cbn [fst]; [exact (Hres s a len Ho E)|exact Hst].
  - destruct (sys_map true zf stat ad s r fail) as [[stat' out] t]. exact Hst.
  - pose proof (sys_alloc_reserves last stat s frames fail Ho Hl) as Hr.
    destruct (sys_alloc true last stat s frames fail) as [[[[l stat'] out] t] rsv]. cbn [fst].
    destruct (reserve_spec last s) as [[a len]|] eqn:E; destruct Hr as [-> _]; [exact (Hres s a len Ho E)|exact Hst].
Qed.

Lemma rrun_wf zf ops : forall last stat,
  WFstart last -> Forall WFrop ops ->
  Forall (fun sr => WFstart (fst (fst sr))) (rrun true zf (last, stat) ops).
Proof.
  induction ops as [|o rest IH]; intros last stat Hst Hwf; cbn [rrun]; [constructor|].
  inversion Hwf as [|? ? Ho Hrest]; subst.
  pose proof (rstep_wf zf last stat o Hst Ho) as Hn.
  destruct (rstep true zf (last, stat) o) as [[l' stat'] r]. cbn [fst] in Hn.
  constructor; [exact Hn|]. apply IH; assumption.
Qed.

(** without the check on the rounded size a request that does not fit does not fail *)
Lemma rt_unchecked_witness :
  let last := vmm_earlyReserveInitial in let s := 0xffffffffffffffff in
  WFstart last /\ s < two64 /\ reserve_spec last s = None /\
  sys_reserve false last s = (last, Ret last, true) /\
  sys_alloc false last 0 s [] None = (last, 0, Ret last, [], Some last) /\
  sys_map false 5 0 0xffffff7fffffd000 s true None = (0, Ret 0xffffff7fffffd000, []).
Proof. cbv zeta. repeat split; vm_compute; try reflexivity. intros H; discriminate H. Qed.
