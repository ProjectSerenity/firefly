(** The hand-written model of the Go runtime's address-space primitives (Goruntime/Boot.v: [sys_reserve], [sys_map],
    [sys_alloc], current code = [chk := true]) IS the Gallina translation that gen/gotrans regenerates from
    kernel/goruntime/bootstrap.go on every run (Gen/Trans_goruntime_boot.v: sysReserve, sysMap, sysAlloc).

    The functions have no receiver; the translation threads the record [world] = the trace of the calls through
    the seams [earlyReserveRegionFn], [mapFn], [memsetFn], [mm.AllocFrame] and the runtime's [mSysStatInc], most
    recent first, with oracles for what they return.  unsafe.Pointer <-> uintptr conversions are identities on
    64-bit numbers; [*reserved = true] is an extra result; [panic(..)] is GPanic.  The model records the
    mapFn / AllocFrame / memsetFn calls as its events [ev], takes the reservation from a cursor [last] with
    [early_reserve], lets mapFn fail at its call number [fail], reads mm.AllocFrame's answers from a list, and
    treats mSysStatInc as an addition to the caller's counter; the oracles below are exactly that environment. *)
From Coq Require Import NArith ZArith String List Bool Lia.
From Coq Require Import ZifyBool ZifyN ZifyNat.
From FF Require Import Lib.Word Lib.GoOps Lib.GoOpsExt Lib.GoOpsProofs Lib.GoCallLoop Gen.Consts_mm_vmm Gen.Trans_goruntime_boot.
From FF Require Import Vmm.Region Vmm.RegionProofs Goruntime.Boot.
From FF Require Vmm.RegionTrans Goruntime.BootProofs.
Import ListNotations.
Local Open Scope N_scope.

Notation W := mk_go_goruntime_world (only parsing).

(** ---- events and oracles ---- *)
Definition ev_of (e : ev) : gcall :=
  match e with
  | EAlloc _ => GCall "mm.AllocFrame" []
  | EMap p f fl => GCall "mapFn" [GNum p; GNum f; GNum fl]
  | EMemset a v s => GCall "memsetFn" [GNum a; GNum v; GNum s]
  end.
Definition ev_reserve (sz : N) : gcall := GCall "earlyReserveRegionFn" [GNum sz].
Definition ev_stat (ptr sz : N) : gcall := GCall "mSysStatInc" [GNum ptr; GNum sz].

Definition is_call (nm : string) (c : gcall) : bool := match c with GCall n _ => String.eqb n nm end.
Definition count_ev (nm : string) (tr : list gcall) : nat := length (filter (is_call nm) tr).

(** EarlyReserveRegion with the cursor at [last] *)
Definition o_reserve (last : N) (tr : list gcall) : N * option string :=
  match tr with
  | GCall _ [GNum s] :: _ =>
      match early_reserve last s with
      | (_, Some a) => (a, None)
      | (_, None) => (0, Some "errEarlyReserveNoSpace"%string)
      end
  | _ => (0, None)
  end.

(** mapFn failing at its call number [fail] (0-based) after [n0] earlier calls *)
Definition o_map (fail : option N) (n0 : nat) (tr : list gcall) : option string :=
  match fail with
  | Some k => if N.of_nat (count_ev "mapFn" tr) =? N.of_nat n0 + k + 1 then Some "errMap"%string else None
  | None => None
  end.

(** mm.AllocFrame answering from the list [frames] after [n0] earlier calls *)
Definition o_alloc (frames : list (option N)) (n0 : nat) (tr : list gcall) : N * option string :=
  match nth_error frames (count_ev "mm.AllocFrame" tr - n0 - 1) with
  | Some (Some f) => (f, None)
  | _ => (0, Some "errAllocFrame"%string)
  end.

(** ---- arithmetic ---- *)
Lemma rt_round_trans size :
  N.land (gsub 64 (gw 64 (size + mm_PageSize)) 1) (gnot 64 (gsub 64 mm_PageSize 1)) = rt_round_up size.
Proof.
  unfold rt_round_up, PageSize.
  assert (E: gsub 64 mm_PageSize 1 = mm_PageSize - 1) by reflexivity. rewrite E.
  change (gsub 64 (gw 64 (size + mm_PageSize)) 1) with (sub64 (add64 size mm_PageSize) 1).
  apply land_gnot64; [unfold sub64; apply w64_lt|reflexivity].
Qed.

Lemma page_of_addr_trans a : a < two64 -> go_mm_PageFromAddress a = page_of_addr a.
Proof. intros Ha. exact (proj1 (RegionTrans.page_of_addr_is_translation a Ha)). Qed.

Lemma rt_round_lt size : rt_round_up size < two64.
Proof.
  unfold rt_round_up. pose proof (w64_lt (add64 size PageSize + two64 - w64 1)).
  assert (andnot (sub64 (add64 size PageSize) 1) (PageSize - 1) <= sub64 (add64 size PageSize) 1)
    by (unfold PageSize; change (mm_PageSize - 1) with (2 ^ 12 - 1); rewrite andnot_pow2; lia).
  unfold sub64 in *. lia.
Qed.

Lemma early_reserve_lt last s l a : last < two64 -> early_reserve last s = (l, Some a) -> a < two64.
Proof.
  intros Hl E. unfold early_reserve in E. destruct (round_up s <? s); [discriminate|].
  destruct (last <? round_up s); [discriminate|]. injection E as _ <-. lia.
Qed.

(** ---- sysReserve ---- *)
Theorem sysReserve_is_translation last ptr size r0 tr0 :
  last < two64 ->
  go_goruntime_sysReserve (W tr0) ptr size r0 (o_reserve last) =
  match sys_reserve true last size with
  | (_, Ret a, fl) => GOk (W (ev_reserve (rt_round_up size) :: tr0), (a, fl))
  | (_, _, _) => GPanic
  end.
Proof.
  intros Hl. cbv delta [go_goruntime_sysReserve sys_reserve]. cbv beta zeta.
  rewrite rt_round_trans. set (rs := rt_round_up size). cbn [andb].
  destruct (rs <? size); [reflexivity|].
  unfold set_f_world_trace; cbn [f_world_trace]. unfold o_reserve.
  destruct (early_reserve last rs) as [l [a|]] eqn:E; cbv iota beta; cbn [gerr_eqb negb]; [|reflexivity].
  rewrite gw64_small by exact (early_reserve_lt _ _ _ _ Hl E). reflexivity.
Qed.

(** ---- sysMap ---- *)
Lemma count_ev_cons nm c tr : count_ev nm (c :: tr) = ((if is_call nm c then 1 else 0) + count_ev nm tr)%nat.
Proof. unfold count_ev. cbn [filter]. destruct (is_call nm c); reflexivity. Qed.

Lemma count_shift_lt size : N.shiftr (rt_round_up size) PageShift < two64.
Proof.
  rewrite N.shiftr_div_pow2. pose proof (rt_round_lt size). unfold PageShift. change (2 ^ mm_PageShift) with 4096. lia.
Qed.

Definition sys_map_res (zf ptr addr size : N) (fail : option N) (tr0 : list gcall)
  : gres (go_goruntime_world * N) :=
  let start := andnot (add64 addr (PageSize - 1)) (PageSize - 1) in
  let rs := rt_round_up size in
  if rs <? size then GOk (W tr0, 0) else
  let '(t, ok) := zero_loop (page_of_addr start) zf (N.shiftr rs PageShift) fail in
  GOk (W ((if ok then [ev_stat ptr rs] else []) ++ rev (map ev_of t) ++ tr0), if ok then start else 0).

Lemma o_map_at fail n0 c tr i :
  count_ev "mapFn" (c :: tr) = S (n0 + i) -> o_map fail n0 (c :: tr) = if fails_round fail i then Some "errMap"%string else None.
Proof.
  intros Hc. unfold o_map, fails_round. rewrite Hc. destruct fail as [k|]; [|reflexivity].
  destruct (N.eqb_spec (N.of_nat (S (n0 + i))) (N.of_nat n0 + k + 1)); destruct (N.eqb_spec (N.of_nat i) k); try reflexivity; lia.
Qed.

Lemma fails_at_round fail k : fails_at fail (N.of_nat k) = fails_round fail k.
Proof. destruct fail as [j|]; [apply N.eqb_sym | reflexivity]. Qed.

Theorem sysMap_is_translation zf ptr addr size reserved fail tr0 fuel :
  addr < two64 -> (N.to_nat (N.shiftr (rt_round_up size) PageShift) < fuel)%nat ->
  go_goruntime_sysMap fuel (W tr0) addr size reserved ptr zf (o_map fail (count_ev "mapFn" tr0)) =
  if negb reserved then GPanic else sys_map_res zf ptr addr size fail tr0.
Proof.
  intros Ha Hfuel. cbv delta [go_goruntime_sysMap]. cbv beta zeta.
  destruct reserved; cbn [negb]; [|reflexivity].
  rewrite rt_round_trans. unfold sys_map_res.
  set (rs := rt_round_up size) in *.
  assert (Estart : N.land (gw 64 (gw 64 addr + gw 64 (gsub 64 mm_PageSize 1))) (gnot 64 (gw 64 (gsub 64 mm_PageSize 1))) =
                   andnot (add64 addr (PageSize - 1)) (PageSize - 1)).
  { rewrite (gw64_small addr Ha). unfold PageSize.
    assert (E: gw 64 (gsub 64 mm_PageSize 1) = mm_PageSize - 1) by reflexivity. rewrite E.
    change (gw 64 (addr + (mm_PageSize - 1))) with (add64 addr (mm_PageSize - 1)).
    apply land_gnot64; [unfold add64; apply w64_lt|reflexivity]. }
  rewrite Estart. set (start := andnot (add64 addr (PageSize - 1)) (PageSize - 1)).
  assert (Hstart : start < two64).
  { unfold start. rewrite PageSize_pow2, andnot_pow2. pose proof (w64_lt (addr + (2 ^ PageShift - 1))). unfold add64. lia. }
  destruct (rs <? size); [reflexivity|].
  rewrite (page_of_addr_trans start Hstart).
  set (page := page_of_addr start). change mm_PageShift with PageShift. set (count := N.shiftr rs PageShift) in *.
  assert (Hc : count < two64) by apply count_shift_lt.
  change (N.lor (N.lor vmm_FlagPresent vmm_FlagNoExecute) vmm_FlagCopyOnWrite) with cow_flags.
  set (n0 := count_ev "mapFn" tr0).
  match goal with |- context [gloop fuel ?f0 _] => set (step := f0) end.
  pose (st := fun (i : nat) tr => (W tr, w64 (page + N.of_nat i), count - N.of_nat i)).
  replace (W tr0, page, count) with (st 0%nat tr0)
    by (unfold st; cbn [N.of_nat]; rewrite N.add_0_r, N.sub_0_r, (w64_small page (page_of_addr_lt _ Hstart)); reflexivity).
  rewrite (gloop_calls step st (fun i => ev_of (EMap (w64 (page + N.of_nat i)) zf cow_flags)) (fun t => (W t, 0)) (fails_round fail)
             (fun i tr => count_ev "mapFn" tr = (n0 + i)%nat) (N.to_nat count))
    with (m := N.to_nat count); [| | | |reflexivity|unfold n0; lia|exact Hfuel].
  - unfold st. rewrite N2Nat.id, N.sub_diag.
    rewrite (first_failing_all (fun t => GOk (inl (W t, w64 (page + count), 0))) (fun t => GOk (inr (W t, 0)))).
    unfold zero_loop. rewrite map_map. cbv zeta.
    rewrite (gw64_small rs) by apply rt_round_lt. rewrite (gw64_small start Hstart).
    unfold set_f_world_trace; cbn [f_world_trace].
    destruct (match fail with Some k => negb (k <? count) | None => true end); reflexivity.
  - intros i tr Hcnt. rewrite count_ev_cons, Hcnt. cbn. lia.
  - intros tr. unfold st, step. rewrite N2Nat.id, N.sub_diag. reflexivity.
  - intros i tr Hi Hcnt. unfold st, step. cbv beta iota zeta. unfold set_f_world_trace; cbn [f_world_trace].
    destruct (N.ltb_spec 0 (count - N.of_nat i)); [|lia].
    rewrite !(o_map_at fail n0 _ tr i) by (rewrite count_ev_cons, Hcnt; reflexivity).
    destruct (fails_round fail i); cbn [gerr_eqb negb]; [reflexivity|].
    rewrite gsub64_small' by (try change (2 ^ 64) with two64; lia).
    replace (count - N.of_nat i - 1) with (count - N.of_nat (S i)) by lia.
    replace (gw 64 (w64 (page + N.of_nat i) + 1)) with (w64 (page + N.of_nat (S i))); [reflexivity|].
    change (gw 64) with w64. unfold w64, two64. rewrite N.add_mod_idemp_l by discriminate. f_equal. lia.
Qed.

(** ---- sysAlloc ---- *)
Definition sys_alloc_res (last ptr size : N) (frames : list (option N)) (fail : option N) (tr0 : list gcall)
  : gres (go_goruntime_world * N) :=
  let rs := rt_round_up size in
  if rs <? size then GOk (W tr0, 0) else
  match early_reserve last rs with
  | (_, None) => GOk (W (ev_reserve rs :: tr0), 0)
  | (_, Some a) =>
      let '(t, ok) := alloc_loop (page_of_addr a) (N.shiftr rs PageShift) frames 0 fail in
      GOk (W ((if ok then [ev_stat ptr rs] else []) ++ rev (map ev_of t) ++ ev_reserve rs :: tr0), if ok then a else 0)
  end.

Lemma nth_error_skipn0 {A} : forall k (l : list A), nth_error l k = nth_error (skipn k l) 0.
Proof. induction k as [|k IH]; intros [|x l]; try reflexivity. cbn [nth_error skipn]. apply IH. Qed.

Lemma skipn_S_tl {A} : forall k (l : list A) x r, skipn k l = x :: r -> skipn (S k) l = r.
Proof.
  induction k as [|k IH]; intros [|y l] x r E; try discriminate.
  - injection E as _ <-. reflexivity.
  - cbn [skipn] in *. eapply IH. exact E.
Qed.

Theorem sysAlloc_is_translation last ptr size frames fail tr0 fuel :
  last < two64 -> (N.to_nat (N.shiftr (rt_round_up size) PageShift) < fuel)%nat ->
  go_goruntime_sysAlloc fuel (W tr0) size ptr (o_reserve last) (o_map fail (count_ev "mapFn" tr0))
    (o_alloc frames (count_ev "mm.AllocFrame" tr0)) =
  sys_alloc_res last ptr size frames fail tr0.
Proof.
  intros Hl Hfuel. cbv delta [go_goruntime_sysAlloc]. cbv beta zeta.
  rewrite rt_round_trans. unfold sys_alloc_res. set (rs := rt_round_up size) in *.
  destruct (rs <? size); [reflexivity|].
  unfold set_f_world_trace; cbn [f_world_trace]. unfold o_reserve at 1.
  destruct (early_reserve last rs) as [l [a|]] eqn:Eres; cbv iota beta; cbn [gerr_eqb negb]; [|reflexivity].
  assert (Ha : a < two64) by exact (early_reserve_lt _ _ _ _ Hl Eres).
  rewrite (page_of_addr_trans a Ha).
  set (page0 := page_of_addr a). change mm_PageShift with PageShift. set (count := N.shiftr rs PageShift) in *.
  assert (Hc : count < two64) by apply count_shift_lt.
  assert (Hpage0 : page0 < two64) by exact (page_of_addr_lt a Ha).
  change (N.lor (N.lor vmm_FlagPresent vmm_FlagNoExecute) vmm_FlagRW) with alloc_flags.
  set (n0m := count_ev "mapFn" tr0). set (n0a := count_ev "mm.AllocFrame" tr0).
  set (tr1 := GCall "earlyReserveRegionFn" [GNum rs] :: tr0).
  match goal with |- context [gloop fuel ?f0 _] => set (step := f0) end.
  assert (L : forall m page fr k tr fu, N.of_nat m < two64 -> page < two64 -> skipn k frames = fr ->
            count_ev "mapFn" tr = (n0m + k)%nat -> count_ev "mm.AllocFrame" tr = (n0a + k)%nat -> (m < fu)%nat ->
            gloop fu step (W tr, page, N.of_nat m) =
            let '(t, ok) := alloc_loop page (N.of_nat m) fr (N.of_nat k) fail in
            if ok then GOk (inl (W (rev (map ev_of t) ++ tr), w64 (page + N.of_nat m), 0))
            else GOk (inr (W (rev (map ev_of t) ++ tr), 0))).
  { induction m as [|m IH]; intros page fr k tr fu Hm Hp Hfr Hcm Hca Hfu; (destruct fu as [|fu]; [lia|]).
    - cbn [N.of_nat]. destruct fr; cbn [alloc_loop N.eqb]; cbn [map rev app];
        (rewrite gloop_break with (s' := (W tr, page, 0)); [rewrite N.add_0_r, (w64_small page Hp); reflexivity|reflexivity]).
    - rewrite gloop_S. unfold step at 1. cbv beta iota zeta. unfold set_f_world_trace; cbn [f_world_trace].
      destruct (N.ltb_spec 0 (N.of_nat (S m))); [|lia].
      set (evA := GCall "mm.AllocFrame" []).
      assert (EcA : count_ev "mm.AllocFrame" (evA :: tr) = S (n0a + k)) by (rewrite count_ev_cons, Hca; reflexivity).
      assert (EoA : o_alloc frames n0a (evA :: tr) =
                    match fr with Some f :: _ => (f, None) | _ => (0, Some "errAllocFrame"%string) end).
      { unfold o_alloc. rewrite EcA. replace (S (n0a + k) - n0a - 1)%nat with k by lia.
        rewrite nth_error_skipn0, Hfr. destruct fr as [|[f|] r]; reflexivity. }
      rewrite EoA. clear EoA.
      rewrite (BootProofs.alloc_loop_pos page (N.of_nat (S m))) by lia.
      destruct fr as [|[f|] rest]; cbv iota beta; cbn [gerr_eqb negb map rev app ev_of]; try reflexivity.
      set (evM := GCall "mapFn" [GNum page; GNum f; GNum alloc_flags]).
      assert (EcM : count_ev "mapFn" (evM :: evA :: tr) = S (n0m + k)) by (rewrite !count_ev_cons, Hcm; reflexivity).
      rewrite !(o_map_at fail n0m _ _ k EcM), <- fails_at_round.
      destruct (fails_at fail (N.of_nat k)); cbn [gerr_eqb negb map rev app ev_of]; [reflexivity|].
      assert (EA : go_mm_Page_Address page = shl64 page PageShift).
      { unfold go_mm_Page_Address, shl64. change (gw 64) with w64. unfold w64, two64. apply N.mod_mod. discriminate. }
      rewrite EA.
      set (evS := GCall "memsetFn" [GNum (shl64 page PageShift); GNum 0; GNum mm_PageSize]).
      rewrite (gsub64_small' (N.of_nat (S m))) by (unfold two64 in Hm; try change (2 ^ 64) with 18446744073709551616; lia).
      change (gw 64 (page + 1)) with (w64 (page + 1)).
      replace (N.of_nat (S m) - 1) with (N.of_nat m) by lia.
      replace (N.of_nat k + 1) with (N.of_nat (S k)) by lia.
      rewrite (IH (w64 (page + 1)) rest (S k) (evS :: evM :: evA :: tr) fu ltac:(lia) (w64_lt _) (skipn_S_tl _ _ _ _ Hfr)
                 ltac:(rewrite count_ev_cons, EcM; unfold evS; cbn; lia) ltac:(rewrite 2 count_ev_cons, EcA; unfold evS, evM; cbn; lia) ltac:(lia)).
      destruct (alloc_loop (w64 (page + 1)) (N.of_nat m) rest (N.of_nat (S k)) fail) as [t ok].
      cbn [map rev ev_of]. rewrite <- !app_assoc. cbn [app].
      replace (w64 (w64 (page + 1) + N.of_nat m)) with (w64 (page + N.of_nat (S m)))
        by (unfold w64, two64; rewrite N.add_mod_idemp_l by discriminate; f_equal; lia).
      destruct ok; reflexivity. }
  assert (Em : N.of_nat (N.to_nat count) = count) by apply N2Nat.id.
  specialize (L (N.to_nat count) page0 frames 0%nat tr1 fuel ltac:(rewrite N2Nat.id; exact Hc) Hpage0 eq_refl
                ltac:(unfold tr1; rewrite count_ev_cons; cbn; fold n0m; lia)
                ltac:(unfold tr1; rewrite count_ev_cons; cbn; fold n0a; lia) Hfuel).
  rewrite Em in L. cbn [N.of_nat] in L. rewrite L. clear L.
  destruct (alloc_loop page0 count frames 0 fail) as [t ok].
  rewrite (gw64_small rs) by apply rt_round_lt. rewrite (gw64_small a Ha).
  unfold set_f_world_trace; cbn [f_world_trace].
  destruct ok; reflexivity.
Qed.

(** ---- the same, stated on the outputs of the model's functions ---- *)
(** did sysMap / sysAlloc map every page (and hence call mSysStatInc)? *)
Definition map_ok (zf addr size : N) (fail : option N) : bool :=
  let rs := rt_round_up size in
  negb (rs <? size) &&
  snd (zero_loop (page_of_addr (andnot (add64 addr (PageSize - 1)) (PageSize - 1))) zf (N.shiftr rs PageShift) fail).

Definition alloc_ok (last size : N) (frames : list (option N)) (fail : option N) : bool :=
  let rs := rt_round_up size in
  negb (rs <? size) &&
  match early_reserve last rs with
  | (_, Some a) => snd (alloc_loop (page_of_addr a) (N.shiftr rs PageShift) frames 0 fail)
  | (_, None) => false
  end.

Theorem sysMap_vs_model zf stat ptr addr size reserved fail tr0 fuel :
  addr < two64 -> (N.to_nat (N.shiftr (rt_round_up size) PageShift) < fuel)%nat ->
  let '(stat', out, t) := sys_map true zf stat addr size reserved fail in
  let ok := map_ok zf addr size fail in
  match out with
  | Ret p =>
      go_goruntime_sysMap fuel (W tr0) addr size reserved ptr zf (o_map fail (count_ev "mapFn" tr0)) =
        GOk (W ((if ok then [ev_stat ptr (rt_round_up size)] else []) ++ rev (map ev_of t) ++ tr0), p) /\
      stat' = (if ok then add64 stat (rt_round_up size) else stat)
  | _ => go_goruntime_sysMap fuel (W tr0) addr size reserved ptr zf (o_map fail (count_ev "mapFn" tr0)) = GPanic
  end.
Proof.
  intros Ha Hf. rewrite (sysMap_is_translation zf ptr addr size reserved fail tr0 fuel Ha Hf).
  unfold sys_map, sys_map_res, map_ok. destruct reserved; cbn [negb andb]; [|reflexivity].
  destruct (rt_round_up size <? size); cbn [negb andb]; [split; reflexivity|].
  destruct (zero_loop _ _ _ _) as [t ok]. cbn [snd]. destruct ok; split; reflexivity.
Qed.

Theorem sysAlloc_vs_model last stat ptr size frames fail tr0 fuel :
  last < two64 -> (N.to_nat (N.shiftr (rt_round_up size) PageShift) < fuel)%nat ->
  let '(l, stat', out, t, rsv) := sys_alloc true last stat size frames fail in
  let ok := alloc_ok last size frames fail in
  match out with
  | Ret p =>
      go_goruntime_sysAlloc fuel (W tr0) size ptr (o_reserve last) (o_map fail (count_ev "mapFn" tr0))
        (o_alloc frames (count_ev "mm.AllocFrame" tr0)) =
        GOk (W ((if ok then [ev_stat ptr (rt_round_up size)] else []) ++ rev (map ev_of t) ++
                (if rt_round_up size <? size then [] else [ev_reserve (rt_round_up size)]) ++ tr0), p) /\
      stat' = (if ok then add64 stat (rt_round_up size) else stat)
  | _ => False
  end.
Proof.
  intros Hl Hf. rewrite (sysAlloc_is_translation last ptr size frames fail tr0 fuel Hl Hf).
  unfold sys_alloc, sys_alloc_res, alloc_ok. cbn [andb].
  destruct (rt_round_up size <? size); cbn [negb andb]; [split; reflexivity|].
  destruct (early_reserve last (rt_round_up size)) as [l [a|]]; [|split; reflexivity].
  destruct (alloc_loop _ _ _ _ _) as [t ok]. cbn [snd]. destruct ok; split; reflexivity.
Qed.
