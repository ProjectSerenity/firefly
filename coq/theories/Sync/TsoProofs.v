(** Proofs about Sync/Tso.v (C08 under x86-TSO store buffering): mutual exclusion for any number of
    tasks and any schedule of program steps and buffer flushes, visibility of the work done inside the
    lock to the next holder, exactness of try-acquire. *)
From Coq Require Import NArith Lia List Bool Arith.
From Coq Require Import ZifyBool ZifyN ZifyNat.
From FF Require Import Lib.Word Sync.Instr Gen.SpinAsm Sync.Machine Sync.MachineProofs Sync.Tso.
Import ListNotations.
Local Open Scope N_scope.

(** ---- buffers ---- *)
Lemma view_app_counter buf m v : view (buf ++ [WCounter v]) m = v.
Proof. revert m. induction buf as [|w buf IH]; intros m; cbn; [reflexivity|]. destruct w; apply IH. Qed.

Lemma view_app_lock buf m v : view (buf ++ [WLock v]) m = view buf m.
Proof. revert m. induction buf as [|w buf IH]; intros m; cbn; [reflexivity|]. destruct w; apply IH. Qed.

Lemma existsb_lock_counters cs : forallb is_counterw cs = true -> existsb is_lockw cs = false.
Proof. induction cs as [|w cs IH]; cbn; auto. destruct w; cbn; auto; try discriminate. Qed.

Lemma existsb_app_lock cs v : existsb is_lockw (cs ++ [WLock v]) = true.
Proof. rewrite existsb_app. cbn. apply orb_true_r. Qed.

(** A task owns the lock: it is in its critical section or past the successful exchange ([got]), or it
    has released but its store of 0 to the lock word is still in its buffer. *)
Definition towner (p : tstate * list wr) : bool := got (fst p) || existsb is_lockw (snd p).

(** shape of a buffer: an owner in its critical section has only counter writes pending; a task that is
    not [got] has nothing pending, or counter writes followed by ONE store of 0 to the lock word *)
Definition buf_ok (p : tstate * list wr) : Prop :=
  let '(t, buf) := p in
  if got t then forallb is_counterw buf = true
  else buf = [] \/ exists cs, forallb is_counterw cs = true /\ buf = cs ++ [WLock 0].

Definition count_own (ts : list (tstate * list wr)) : nat := length (filter towner ts).

Lemma count_own_upd ts i p p' : nth_error ts i = Some p ->
  (count_own (upd ts i p') + b2n (towner p) = count_own ts + b2n (towner p'))%nat.
Proof. apply filter_upd. Qed.

Lemma own_in_count ts i p : nth_error ts i = Some p -> towner p = true -> (1 <= count_own ts)%nat.
Proof. apply filter_nth. Qed.

Lemma count_zero_none ts i p : count_own ts = 0%nat -> nth_error ts i = Some p -> towner p = false.
Proof.
  intros H0 Hn. destruct (towner p) eqn:E; auto. pose proof (own_in_count _ _ _ Hn E). lia.
Qed.

Lemma buf_lock_head t v rest : buf_ok (t, WLock v :: rest) -> got t = false /\ v = 0 /\ rest = [].
Proof.
  cbn [buf_ok]. destruct (got t) eqn:G.
  - cbn. discriminate.
  - intros [H|(cs & Hcs & H)]; [discriminate|]. destruct cs as [|c cs].
    + cbn in H. injection H as -> ->. auto.
    + cbn in H. injection H as <- _. cbn in Hcs. discriminate.
Qed.

Lemma buf_counter_head t v rest : buf_ok (t, WCounter v :: rest) -> buf_ok (t, rest) /\ towner (t, rest) = true.
Proof.
  cbn [buf_ok]. unfold towner. cbn [fst snd]. destruct (got t) eqn:G.
  - cbn. auto.
  - intros [H|(cs & Hcs & H)]; [discriminate|]. destruct cs as [|c cs]; [discriminate|].
    cbn in H. injection H as <- ->. cbn in Hcs. split.
    + right. exists cs. auto.
    + cbn [orb]. apply existsb_app_lock.
Qed.

(** ---- the invariant ---- *)
Definition sees (cnt dn : N) (p : tstate * list wr) : Prop :=
  towner p = true -> view (snd p) cnt = dn /\ tmp_ok dn (fst p).

Definition TInv (y : bool) (s : tso) : Prop :=
  m_lock s = N.of_nat (count_own (tthreads s)) /\
  (count_own (tthreads s) <= 1)%nat /\
  Forall (fun p => linv y (fst p)) (tthreads s) /\
  Forall buf_ok (tthreads s) /\
  Forall (sees (m_counter s) (t_ndone s)) (tthreads s) /\
  (count_own (tthreads s) = 0%nat -> m_counter s = t_ndone s).

Lemma tinit_inv y n : TInv y (tinit n).
Proof.
  unfold TInv, tinit. cbn [m_lock m_counter t_ndone tthreads].
  assert (H: count_own (repeat (Idle, []) n) = 0%nat) by (induction n; cbn; auto).
  rewrite H. repeat split; try lia; apply Forall_forall; intros p Hp; apply repeat_spec in Hp; subst; cbn; auto.
  unfold sees. cbn. discriminate.
Qed.

Lemma exec_mem_unchanged c y i pc r lk h : i <> IXchg -> i <> IStore -> snd (exec c y i pc r lk h) = lk.
Proof.
  intros H1 H2. destruct i; try congruence; cbn; try reflexivity;
    repeat match goal with |- context [match ?x with _ => _ end] => destruct x; cbn end; reflexivity.
Qed.

(** everybody but [tid] is no owner when [tid] is *)
Lemma others_not_owner ts tid p : (count_own ts <= 1)%nat -> nth_error ts tid = Some p -> towner p = true ->
  forall j q, j <> tid -> nth_error ts j = Some q -> towner q = false.
Proof.
  intros Hc Hp Ho j q Hne Hq. destruct (towner q) eqn:E; auto.
  assert (2 <= count_own ts)%nat by (eapply (filter_two towner ts tid j); eauto). lia.
Qed.

Lemma sees_nonowner cnt' dn' p : towner p = false -> sees cnt' dn' p.
Proof. intros H Ho. congruence. Qed.

(** re-establish the per-thread clauses after thread [tid] moved to [p'] *)
Lemma Forall_upd_others {A} (P Q : A -> Prop) (l : list A) i x :
  Forall P l -> (forall j y, j <> i -> nth_error l j = Some y -> P y -> Q y) -> Q x -> Forall Q (upd l i x).
Proof.
  intros HP H Hx. apply Forall_upd_weak; auto. intros j y Hne Hj. apply (H j y Hne Hj). eapply Forall_nth; eauto.
Qed.

Ltac inv_some H := injection H as <- <-.

Ltac tinv_split := unfold TInv; cbn [m_lock m_counter t_ndone tthreads]; split; [|split; [|split; [|split; [|split]]]].

Lemma tstep_inv y lr s l s' o : TInv y s -> tstep expected_cfg y lr s l = Some (s', o) -> TInv y s'.
Proof.
  intros (Hlock & Hcnt & Hl & Hb & Hsee & Hzero) Hs. destruct l as [tid ch]. unfold tstep in Hs.
  destruct (nth_error (tthreads s) tid) as [[t buf]|] eqn:Ht; [|discriminate].
  pose proof (Forall_nth _ _ _ _ Hl Ht) as Hlt. cbn [fst] in Hlt.
  pose proof (Forall_nth _ _ _ _ Hb Ht) as Hbt.
  pose proof (Forall_nth _ _ _ _ Hsee Ht) as Hst. unfold sees in Hst. cbn [fst snd] in Hst.
  destruct ch as [|ch].
  - (* ---- flush ---- *)
    destruct buf as [|w rest]; [discriminate|]. destruct w as [v|v]; inv_some Hs.
    + (* the store to the lock word *)
      destruct (buf_lock_head _ _ _ Hbt) as (Hg & -> & ->).
      assert (Ho: towner (t, [WLock 0]) = true) by (unfold towner; cbn; rewrite Hg; reflexivity).
      pose proof (count_own_upd _ _ _ (t, []) Ht) as Hc. rewrite Ho in Hc.
      assert (Ho': towner (t, []) = false) by (unfold towner; cbn; rewrite Hg; reflexivity).
      rewrite Ho' in Hc. cbn in Hc.
      pose proof (own_in_count _ _ _ Ht Ho) as H1.
      destruct (Hst Ho) as (Hv & _). cbn in Hv.
      tinv_split.
      * lia.
      * lia.
      * apply Forall_upd; [assumption|]; cbn [fst snd]; auto.
      * apply Forall_upd; [assumption|]. cbn. rewrite Hg. left. reflexivity.
      * eapply Forall_upd_others; [exact Hsee| |].
        -- intros j q Hne Hq _. apply sees_nonowner. eapply (others_not_owner _ tid _ Hcnt Ht); eauto.
        -- apply sees_nonowner. exact Ho'.
      * intros _. exact Hv.
    + (* a store to the counter *)
      assert (Ho: towner (t, WCounter v :: rest) = towner (t, rest)) by reflexivity.
      pose proof (count_own_upd _ _ _ (t, rest) Ht) as Hc. rewrite Ho in Hc.
      destruct (buf_counter_head _ _ _ Hbt) as (Hbt' & Hown).
      tinv_split.
      * lia.
      * lia.
      * apply Forall_upd; [assumption|]; cbn [fst snd]; auto.
      * apply Forall_upd; [assumption|]; cbn [fst snd]; auto.
      * eapply Forall_upd_others; [exact Hsee| |].
        -- intros j q Hne Hq _. apply sees_nonowner. eapply (others_not_owner _ tid _ Hcnt Ht); eauto.
        -- intros _. cbn [fst snd]. rewrite Ho in Hst. exact (Hst Hown).
      * intros H0. exfalso. assert (1 <= count_own (upd (tthreads s) tid (t, rest)))%nat.
        { eapply own_in_count; [eapply nth_upd_same; eauto|exact Hown]. }
        lia.
  - destruct ch as [| | | | |h].
    + (* ---- StartAcq ---- *)
      destruct t as [|pc r|v|]; try discriminate. inv_some Hs.
      assert (Ho: towner (InAcq 0 entry_regs, buf) = towner (Idle, buf)) by reflexivity.
      pose proof (count_own_upd _ _ _ (InAcq 0 entry_regs, buf) Ht) as Hc. rewrite Ho in Hc.
      tinv_split.
      * lia.
      * lia.
      * apply Forall_upd; [assumption|]. apply entry_linv.
      * apply Forall_upd; [assumption|]; cbn [fst snd]; auto.
      * apply Forall_upd; [assumption|]. unfold sees. rewrite Ho. cbn [fst snd]. intros H. destruct (Hst H) as (Hv & _). split; [exact Hv|exact I].
      * intros H0. apply Hzero. lia.
    + (* ---- TryToAcquire ---- *)
      destruct t as [|pc r|v|]; try discriminate. destruct buf as [|w rest]; [|discriminate]. inv_some Hs.
      cbn [tswap tcmp expected_cfg].
      assert (Ho: towner (Idle, []) = false) by reflexivity.
      destruct (N.eqb_spec (m_lock s) 0) as [E|E].
      * pose proof (count_own_upd _ _ _ (Holding None, []) Ht) as Hc. rewrite Ho in Hc. cbn in Hc.
        assert (H0: count_own (tthreads s) = 0%nat) by lia.
        tinv_split.
        -- lia.
        -- lia.
        -- apply Forall_upd; [assumption|]. exact I.
        -- apply Forall_upd; [assumption|]. reflexivity.
        -- eapply Forall_upd_others; [exact Hsee| |].
           ++ intros j q Hne Hq _. apply sees_nonowner. eapply count_zero_none; eauto.
           ++ intros _. cbn. split; [apply Hzero; exact H0|exact I].
        -- intros H2. exfalso. lia.
      * pose proof (count_own_upd _ _ _ (Idle, []) Ht) as Hc. rewrite Ho in Hc. cbn in Hc.
        tinv_split.
        -- lia.
        -- lia.
        -- apply Forall_upd; [assumption|]; cbn [fst snd]; auto.
        -- apply Forall_upd; [assumption|]; cbn [fst snd]; auto.
        -- apply Forall_upd; [assumption|]. apply sees_nonowner. exact Ho.
        -- intros H0. apply Hzero. lia.
    + (* ---- Release ---- *)
      destruct t as [|pc r|[v|]|]; try discriminate.
      assert (Ho: towner (Holding None, buf) = true) by reflexivity.
      destruct (Hst Ho) as (Hv & _). cbn in Hbt.
      pose proof (own_in_count _ _ _ Ht Ho) as H1.
      destruct lr.
      * destruct buf as [|w rest]; [|discriminate]. inv_some Hs. cbn [rstore expected_cfg].
        pose proof (count_own_upd _ _ _ (Idle, []) Ht) as Hc. rewrite Ho in Hc. cbn in Hc.
        tinv_split.
        -- lia.
        -- lia.
        -- apply Forall_upd; [assumption|]. exact I.
        -- apply Forall_upd; [assumption|]. cbn. left. reflexivity.
        -- eapply Forall_upd_others; [exact Hsee| |].
           ++ intros j q Hne Hq _. apply sees_nonowner. eapply (others_not_owner _ tid _ Hcnt Ht); eauto.
           ++ apply sees_nonowner. reflexivity.
        -- intros _. exact Hv.
      * inv_some Hs. cbn [rstore expected_cfg].
        assert (Ho': towner (Idle, buf ++ [WLock 0]) = true) by (unfold towner; cbn [fst snd got]; rewrite existsb_app_lock; reflexivity).
        pose proof (count_own_upd _ _ _ (Idle, buf ++ [WLock 0]) Ht) as Hc. rewrite Ho, Ho' in Hc.
        tinv_split.
        -- lia.
        -- lia.
        -- apply Forall_upd; [assumption|]. exact I.
        -- apply Forall_upd; [assumption|]. cbn. right. exists buf. split; auto.
        -- eapply Forall_upd_others; [exact Hsee| |].
           ++ intros j q Hne Hq Hq'. exact Hq'.
           ++ intros _. cbn [fst snd]. rewrite view_app_lock. split; [exact Hv|exact I].
        -- intros H0. exfalso. lia.
    + (* ---- critical section: read ---- *)
      destruct t as [|pc r|[v|]|]; try discriminate. inv_some Hs.
      assert (Ho: towner (Holding None, buf) = true) by reflexivity.
      destruct (Hst Ho) as (Hv & _).
      pose proof (count_own_upd _ _ _ (Holding (Some (view buf (m_counter s))), buf) Ht) as Hc.
      assert (Ho': towner (Holding (Some (view buf (m_counter s))), buf) = true) by reflexivity.
      rewrite Ho, Ho' in Hc.
      tinv_split.
      * lia.
      * lia.
      * apply Forall_upd; [assumption|]. exact I.
      * apply Forall_upd; [assumption|]; cbn [fst snd]; auto.
      * apply Forall_upd; [assumption|]. intros _. cbn [fst snd]. split; [exact Hv|]. cbn. exact Hv.
      * intros H0. apply Hzero. lia.
    + (* ---- critical section: write ---- *)
      destruct t as [|pc r|[v|]|]; try discriminate. inv_some Hs.
      assert (Ho: towner (Holding (Some v), buf) = true) by reflexivity.
      destruct (Hst Ho) as (Hv & Htmp). cbn in Htmp. subst v. cbn in Hbt.
      pose proof (count_own_upd _ _ _ (Holding None, buf ++ [WCounter (t_ndone s + 1)]) Ht) as Hc.
      assert (Ho': towner (Holding None, buf ++ [WCounter (t_ndone s + 1)]) = true) by reflexivity.
      rewrite Ho, Ho' in Hc.
      pose proof (own_in_count _ _ _ Ht Ho) as H1.
      tinv_split.
      * lia.
      * lia.
      * apply Forall_upd; [assumption|]. exact I.
      * apply Forall_upd; [assumption|]. cbn. rewrite forallb_app, Hbt. reflexivity.
      * eapply Forall_upd_others; [exact Hsee| |].
        -- intros j q Hne Hq _. apply sees_nonowner. eapply (others_not_owner _ tid _ Hcnt Ht); eauto.
        -- intros _. cbn [fst snd]. rewrite view_app_counter. split; [reflexivity|exact I].
      * intros H0. exfalso. lia.
    + (* ---- one instruction of archAcquireSpinlock ---- *)
      destruct t as [|pc r|v|]; try discriminate.
      destruct (nth_error (prog expected_cfg) pc) as [i|] eqn:Hi.
      2:{ exfalso. destruct Hlt as (Hpc & _). apply nth_error_None in Hi. cbn in Hi. lia. }
      assert (Hlk: m_lock s = 0 \/ m_lock s = 1) by lia.
      assert (Hg: got (InAcq pc r) = true -> m_lock s = 1).
      { intros G. assert (towner (InAcq pc r, buf) = true) by (unfold towner; cbn [fst]; rewrite G; reflexivity).
        pose proof (own_in_count _ _ _ Ht H). lia. }
      pose proof (exec_inv y pc r i (m_lock s) h Hlt Hi Hlk Hg) as He.
      pose proof (fun v => exec_no_tmp expected_cfg y i pc r (m_lock s) h v) as Hnt.
      assert (Hnostore: i <> IStore).
      { intros ->. apply nth_error_In in Hi. cbn in Hi. intuition discriminate. }
      destruct (exec expected_cfg y i pc r (m_lock s) h) as [t' lk'] eqn:Hex.
      destruct He as (Hl' & Hown).
      assert (Htmp': forall dn, tmp_ok dn t').
      { intros dn. destruct t' as [| | [v|] |]; cbn; auto. exfalso. apply (Hnt v). reflexivity. }
      (* split on the exchange *)
      assert (Hcases: (i = IXchg /\ buf = [] /\ s' = {| m_lock := lk'; m_counter := m_counter s; t_ndone := t_ndone s; tthreads := upd (tthreads s) tid (t', []) |})
                      \/ (i <> IXchg /\ lk' = m_lock s /\ s' = {| m_lock := m_lock s; m_counter := m_counter s; t_ndone := t_ndone s; tthreads := upd (tthreads s) tid (t', buf) |})).
      { destruct i; try congruence;
          try (right; split; [discriminate|]; split;
               [ match type of Hex with exec _ _ ?ii _ _ _ _ = _ =>
                   assert (Hm: snd (exec expected_cfg y ii pc r (m_lock s) h) = m_lock s) by (apply exec_mem_unchanged; discriminate) end;
                 rewrite Hex in Hm; exact Hm
               | try rewrite Hex in Hs; inv_some Hs; reflexivity ]).
        left. destruct buf as [|w rest]; [|discriminate]. try rewrite Hex in Hs. inv_some Hs. auto. }
      clear Hs.
      destruct Hcases as [(-> & -> & ->)|(Hnx & -> & ->)].
      * (* XCHG with an empty buffer *)
        assert (Ho: towner (InAcq pc r, []) = got (InAcq pc r)) by (unfold towner; cbn [fst snd existsb]; apply orb_false_r).
        assert (Ho': towner (t', []) = got t') by (unfold towner; cbn [fst snd existsb]; apply orb_false_r).
        pose proof (count_own_upd _ _ _ (t', []) Ht) as Hc. rewrite Ho, Ho' in Hc.
        destruct Hown as [(G & L)|(G0 & G1 & L0 & L1)].
        -- rewrite G in Hc. subst lk'.
           tinv_split.
           ++ lia.
           ++ lia.
           ++ apply Forall_upd; [assumption|]; cbn [fst snd]; auto.
           ++ apply Forall_upd; [assumption|]. cbn. destruct (got t'); auto.
           ++ apply Forall_upd; [assumption|]. unfold sees. rewrite Ho', G, <- Ho. cbn [fst snd]. intros H. destruct (Hst H) as (Hv & _). split; auto.
           ++ intros H0. apply Hzero. lia.
        -- rewrite G0, G1 in Hc. cbn in Hc. subst lk'.
           assert (H0: count_own (tthreads s) = 0%nat) by lia.
           tinv_split.
           ++ lia.
           ++ lia.
           ++ apply Forall_upd; [assumption|]; cbn [fst snd]; auto.
           ++ apply Forall_upd; [assumption|]. cbn. rewrite G1. reflexivity.
           ++ eapply Forall_upd_others; [exact Hsee| |].
              ** intros j q Hne Hq _. apply sees_nonowner. eapply count_zero_none; eauto.
              ** intros _. cbn [fst snd view]. split; [apply Hzero; exact H0|apply Htmp'].
           ++ intros H2. exfalso. lia.
      * (* any other instruction: memory untouched *)
        assert (G: got t' = got (InAcq pc r)).
        { destruct Hown as [(G & _)|(_ & _ & L0 & L1)]; [exact G|]. exfalso. lia. }
        assert (Ho': towner (t', buf) = towner (InAcq pc r, buf)) by (unfold towner; cbn [fst snd]; rewrite G; reflexivity).
        pose proof (count_own_upd _ _ _ (t', buf) Ht) as Hc. rewrite Ho' in Hc.
        tinv_split.
        -- lia.
        -- lia.
        -- apply Forall_upd; [assumption|]; cbn [fst snd]; auto.
        -- apply Forall_upd; [assumption|]. cbn [buf_ok] in *. rewrite G. exact Hbt.
        -- apply Forall_upd; [assumption|]. unfold sees. rewrite Ho'. cbn [fst snd]. intros H. destruct (Hst H) as (Hv & _). split; auto.
        -- intros H0. apply Hzero. lia.
Qed.

Lemma trun_inv y lr ls : forall s s', TInv y s -> trun expected_cfg y lr s ls = Some s' -> TInv y s'.
Proof.
  induction ls as [|l ls IH]; intros s s' Hi Hr; cbn in Hr.
  - injection Hr as <-. exact Hi.
  - destruct (tstep expected_cfg y lr s l) as [[s1 o]|] eqn:E; [|discriminate].
    eapply IH; [|exact Hr]. eapply tstep_inv; eauto.
Qed.

Lemma treachable_inv n y lr s : TReachable n y lr s -> TInv y s.
Proof.
  intros [ls Hr]. destruct gen_matches as [Hg _]. rewrite Hg in Hr. eapply trun_inv; [apply tinit_inv|exact Hr].
Qed.

Lemma tholders_le_own ts : (length (filter (fun p => is_holding (fst p)) ts) <= count_own ts)%nat.
Proof.
  unfold count_own. apply filter_le. intros [t buf] H. unfold towner. cbn [fst snd] in *.
  destruct t; try discriminate. reflexivity.
Qed.

Lemma linv_not_faulted_t y (ts : list (tstate * list wr)) : Forall (fun p => linv y (fst p)) ts -> existsb (fun p => is_faulted (fst p)) ts = false.
Proof.
  induction 1 as [|[t b] ts Ht _ IH]; cbn; auto. destruct t; cbn in *; auto. contradiction.
Qed.

(** Mutual exclusion under TSO, for any number of tasks, any schedule of program steps and flushes,
    yieldFn set or not, release by XCHG or by a plain buffered store. *)
Theorem tso_mutex n y lr s : TReachable n y lr s ->
  (tholders s <= 1)%nat /\ existsb (fun p => is_faulted (fst p)) (tthreads s) = false /\
  m_lock s = N.of_nat (count_own (tthreads s)) /\ (count_own (tthreads s) <= 1)%nat.
Proof.
  intros Hr. pose proof (treachable_inv _ _ _ _ Hr) as (H1 & H2 & H3 & _).
  repeat split; auto.
  - unfold tholders. pose proof (tholders_le_own (tthreads s)). lia.
  - eapply linv_not_faulted_t; eauto.
Qed.

(** Visibility: whatever is still sitting in store buffers, the task in its critical section reads the
    protected counter as the number of increments completed by ALL holders so far (its own and every
    earlier holder's), and the value it is about to write back is that number plus one. *)
Theorem tso_visibility n y lr s tid t buf : TReachable n y lr s ->
  nth_error (tthreads s) tid = Some (t, buf) -> is_holding t = true ->
  view buf (m_counter s) = t_ndone s /\ match t with Holding (Some v) => v = t_ndone s | _ => True end.
Proof.
  intros Hr Ht Hh. pose proof (treachable_inv _ _ _ _ Hr) as (_ & _ & _ & _ & Hsee & _).
  pose proof (Forall_nth _ _ _ _ Hsee Ht) as Hs. unfold sees in Hs. cbn [fst snd] in Hs.
  destruct t as [|pc r|v|]; try discriminate. destruct (Hs eq_refl) as (Hv & Htmp). split; auto.
Qed.

(** No lost update: once every task is idle and every buffer drained, memory holds the number of
    completed increments and the lock word is 0. *)
Theorem tso_quiescent n y lr s : TReachable n y lr s -> quiescent s -> m_counter s = t_ndone s /\ m_lock s = 0.
Proof.
  intros Hr Hq. pose proof (treachable_inv _ _ _ _ Hr) as (Hlock & _ & _ & _ & _ & Hzero).
  assert (H0: count_own (tthreads s) = 0%nat).
  { unfold quiescent in Hq. unfold count_own. clear - Hq. induction Hq as [|p ts Hp _ IH]; cbn; auto. subst p. cbn. exact IH. }
  split; [apply Hzero; exact H0|]. rewrite Hlock, H0. reflexivity.
Qed.

(** try-acquire under TSO: it returns true exactly when the lock word in memory was 0 - the caller then
    is in its critical section and the word is 1; when it returns false (the word is 1: somebody owns
    the lock, possibly with its releasing store still buffered) the whole state is unchanged. *)
Theorem tso_try_exact n y lr s tid : TReachable n y lr s -> nth_error (tthreads s) tid = Some (Idle, []) ->
  exists s', tstep gen_cfg y lr s (tid, TOp CTry) = Some (s', Some (m_lock s =? 0)) /\
    ((m_lock s = 0 /\ m_lock s' = 1 /\ nth_error (tthreads s') tid = Some (Holding None, []) /\
      (forall j, j <> tid -> nth_error (tthreads s') j = nth_error (tthreads s) j) /\
      m_counter s' = m_counter s /\ t_ndone s' = t_ndone s)
     \/ (m_lock s = 1 /\ s' = s)).
Proof.
  intros Hr Ht. pose proof (treachable_inv _ _ _ _ Hr) as (Hlock & Hcnt & _).
  destruct gen_matches as [Hg _]. rewrite Hg.
  unfold tstep. rewrite Ht. cbn [tcmp tswap expected_cfg].
  eexists. split; [reflexivity|].
  destruct (N.eqb_spec (m_lock s) 0) as [E|E].
  - left. cbn [m_lock tthreads m_counter t_ndone]. repeat split; auto.
    + eapply nth_upd_same; eauto.
    + intros j Hj. apply nth_upd_other. congruence.
  - right. assert (m_lock s = 1) by lia. split; [assumption|].
    rewrite (upd_same _ _ _ Ht). destruct s as [lk c d ts]; cbn [m_lock m_counter t_ndone tthreads] in *. rewrite H. reflexivity.
Qed.

(** The release reaches memory: a task that has released (plain store still buffered) frees the lock
    by draining its buffer; nobody else can take the lock before that, and afterwards the word is 0. *)
Theorem tso_release_drains n y lr s tid t buf : TReachable n y lr s ->
  nth_error (tthreads s) tid = Some (t, buf) -> existsb is_lockw buf = true ->
  exists s', trun gen_cfg y lr s (repeat (tid, TFlush) (length buf)) = Some s' /\
             m_lock s' = 0 /\ nth_error (tthreads s') tid = Some (t, []) /\ m_counter s' = t_ndone s'.
Proof.
  intros Hr Ht Hb. pose proof (treachable_inv _ _ _ _ Hr) as Hi.
  destruct gen_matches as [Hg _]. rewrite Hg. clear Hr.
  revert s Ht Hb Hi. induction buf as [|w rest IH]; intros s Ht Hb Hi; [discriminate|].
  cbn [length repeat trun]. unfold tstep at 1. rewrite Ht.
  destruct w as [v|v].
  - (* the lock store is the last entry *)
    destruct Hi as (Hlock & Hcnt & Hl & Hbo & Hsee & Hzero).
    pose proof (Forall_nth _ _ _ _ Hbo Ht) as Hbt.
    destruct (buf_lock_head _ _ _ Hbt) as (Hg' & -> & ->). cbn [length repeat trun].
    eexists. split; [reflexivity|]. cbn [m_lock tthreads m_counter t_ndone].
    repeat split; auto.
    + eapply nth_upd_same; eauto.
    + pose proof (Forall_nth _ _ _ _ Hsee Ht) as Hs. unfold sees in Hs.
      assert (Ho: towner (t, [WLock 0]) = true) by (unfold towner; cbn; rewrite Hg'; reflexivity).
      destruct (Hs Ho) as (Hv & _). exact Hv.
  - cbn [existsb is_lockw orb] in Hb.
    set (s1 := {| m_lock := m_lock s; m_counter := v; t_ndone := t_ndone s; tthreads := upd (tthreads s) tid (t, rest) |}).
    assert (Hs1: tstep expected_cfg y lr s (tid, TFlush) = Some (s1, None)).
    { unfold tstep. rewrite Ht. reflexivity. }
    pose proof (tstep_inv _ _ _ _ _ _ Hi Hs1) as Hi1.
    assert (Ht1: nth_error (tthreads s1) tid = Some (t, rest)) by (cbn; eapply nth_upd_same; eauto).
    destruct (IH s1 Ht1 Hb Hi1) as (s' & Hr' & H1 & H2 & H3).
    exists s'. split; [exact Hr'|]. auto.
Qed.

(** The interleaving machine is the TSO machine with every store flushed at once (locked release):
    every schedule of Sync/Machine.v is a schedule of the TSO machine, so the theorems above
    generalise those of Sync/MachineProofs.v and their hypotheses are met by all its runs. *)
Definition sc_label (l : label) : list tlabel :=
  match l with
  | (tid, CCsWrite) => [(tid, TOp CCsWrite); (tid, TFlush)]
  | (tid, ch) => [(tid, TOp ch)]
  end.

Lemma map_upd {A B} (f : A -> B) (l : list A) : forall i x, map f (upd l i x) = upd (map f l) i (f x).
Proof. induction l as [|a l IH]; intros [|i] x; cbn; auto. f_equal. apply IH. Qed.

Lemma upd_upd {A} (l : list A) : forall i (x y : A), upd (upd l i x) i y = upd l i y.
Proof. induction l as [|a l IH]; intros [|i] x y; cbn; auto. f_equal. apply IH. Qed.

Lemma trun_app c y lr ls1 : forall s ls2, trun c y lr s (ls1 ++ ls2) =
  match trun c y lr s ls1 with Some s1 => trun c y lr s1 ls2 | None => None end.
Proof.
  induction ls1 as [|l ls1 IH]; intros s ls2; cbn; auto.
  destruct (tstep c y lr s l) as [[s1 o]|]; auto.
Qed.

Lemma sc_step_embeds c y s l s' o : ~ In IStore (prog c) -> step c y s l = Some (s', o) ->
  trun c y true (embed s) (sc_label l) = Some (embed s').
Proof.
  intros Hns Hs. destruct l as [tid ch]. unfold step in Hs.
  destruct (nth_error (threads s) tid) as [t|] eqn:Ht; [|discriminate].
  assert (Hte: nth_error (tthreads (embed s)) tid = Some (t, [])).
  { unfold embed. cbn [tthreads]. rewrite nth_error_map, Ht. reflexivity. }
  destruct ch; destruct t as [|pc r|[v|]|]; try discriminate; cbn [sc_label trun].
  - inv_some Hs. unfold tstep. rewrite Hte. unfold embed. cbn. rewrite map_upd. reflexivity.
  - inv_some Hs. unfold tstep. rewrite Hte. unfold embed. cbn -[N.eqb].
    rewrite map_upd. destruct (lock s =? tcmp c); reflexivity.
  - inv_some Hs. unfold tstep. rewrite Hte. unfold embed. cbn. rewrite map_upd. reflexivity.
  - inv_some Hs. unfold tstep. rewrite Hte. unfold embed. cbn. rewrite map_upd. reflexivity.
  - inv_some Hs. unfold tstep at 1. rewrite Hte. cbn [app].
    unfold tstep. cbn [tthreads embed m_lock m_counter t_ndone].
    erewrite nth_upd_same by (rewrite nth_error_map, Ht; reflexivity).
    unfold embed. cbn. rewrite !map_upd, upd_upd. reflexivity.
  - unfold tstep. rewrite Hte.
    destruct (nth_error (prog c) pc) as [i|] eqn:Hi.
    + assert (Hni: i <> IStore) by (intros ->; apply Hns; eapply nth_error_In; eauto).
      destruct (exec c y i pc r (lock s) h) as [t' lk] eqn:Hex. inv_some Hs.
      destruct i; try congruence; cbn [embed m_lock m_counter t_ndone tthreads]; rewrite Hex;
        try (match type of Hex with exec _ _ ?ii _ _ _ _ = _ =>
               assert (Hm: snd (exec c y ii pc r (lock s) h) = lock s) by (apply exec_mem_unchanged; discriminate) end;
             rewrite Hex in Hm; cbn [snd] in Hm; subst lk);
        unfold embed; cbn; rewrite map_upd; reflexivity.
    + inv_some Hs. unfold embed. cbn. rewrite map_upd. reflexivity.
Qed.

Theorem sc_runs_are_tso_runs c y ls : ~ In IStore (prog c) -> forall s s', run c y s ls = Some s' ->
  trun c y true (embed s) (flat_map sc_label ls) = Some (embed s').
Proof.
  intros Hns. induction ls as [|l ls IH]; intros s s' Hr; cbn in Hr.
  - injection Hr as <-. reflexivity.
  - destruct (step c y s l) as [[s1 o]|] eqn:E; [|discriminate].
    cbn [flat_map]. rewrite trun_app, (sc_step_embeds _ _ _ _ _ _ Hns E). apply IH. exact Hr.
Qed.

Lemma embed_init n : embed (init n) = tinit n.
Proof. unfold embed, init, tinit. cbn. f_equal. induction n; cbn; [reflexivity|f_equal; assumption]. Qed.

Theorem sc_reachable_tso n y s : Reachable n y s -> TReachable n y true (embed s).
Proof.
  intros [ls Hr]. exists (flat_map sc_label ls). rewrite <- embed_init.
  apply sc_runs_are_tso_runs; [|exact Hr].
  destruct gen_matches as [-> _]. cbn. intuition discriminate.
Qed.
