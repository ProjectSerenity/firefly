(** Proofs about Sync/Machine.v (C08): mutual exclusion for any number of tasks and any schedule,
    exactness of try-acquire, release, no lost update. *)
From Coq Require Import NArith Lia List Bool Arith.
From Coq Require Import ZifyBool ZifyN ZifyNat.
From FF Require Import Lib.Word Sync.Instr Gen.SpinAsm Sync.Machine.
Import ListNotations.
Local Open Scope N_scope.

(** The program the proofs below are about.  [gen_matches] is the obligation that ties it to the
    assembly and Go source of the current tree (Gen/SpinAsm.v is regenerated on every run). *)
Definition expected_cfg : cfg :=
  {| prog := [ ILoadStatePtr; ILoadAttempts; IMovImm BX 1; IXchg; ITest BX; IJnz 7; IRet;
               IPause; ILoad; ITest BX; IJz 2; IDec CX; IJnz 7;
               ILoadYield; ITest AX; IJz 17; ICallAX; ILoadStatePtr; ILoadAttempts; IJmp 7 ];
     attempts := 1; tswap := 1; tcmp := 0; rstore := 0 |}.

Lemma gen_matches : gen_cfg = expected_cfg /\ go_shape_ok = true.
Proof. split; reflexivity. Qed.

Definition b2n (b : bool) : nat := if b then 1%nat else 0%nat.

(** A task owns the lock: it is in its critical section, or it is inside Acquire after the exchange that read 0
    (program points 4, 5, 6 of [expected_cfg]: the test of BX after the exchange at 3, the jump on it, the return). *)
Definition got (t : tstate) : bool :=
  match t with
  | Holding _ => true
  | InAcq pc r =>
      match pc with
      | 4%nat => bx r =? 0
      | 5%nat => zf r
      | 6%nat => true
      | _ => false
      end
  | _ => false
  end.

Definition ax_state_pcs : list nat := [1; 2; 3; 4; 5; 6; 7; 8; 9; 10; 11; 12; 13; 18; 19]%nat.

Definition linv (yield : bool) (t : tstate) : Prop :=
  match t with
  | InAcq pc r =>
      (pc < 20)%nat /\
      (In pc ax_state_pcs -> ax r = PState) /\
      (pc = 3%nat -> bx r = 1) /\
      (pc = 14%nat \/ pc = 15%nat \/ pc = 16%nat -> ax r = if yield then PYieldFn else PNull) /\
      (pc = 15%nat -> zf r = negb yield) /\
      (pc = 16%nat -> yield = true)
  | Faulted => False
  | _ => True
  end.

Lemma entry_linv y : linv y (InAcq 0 entry_regs).
Proof.
  cbn. repeat split; try lia; intros H; repeat (destruct H as [H|H]; try discriminate); try contradiction.
Qed.

Lemma pc_cases pc : (pc < 20)%nat ->
  pc = 0%nat \/ pc = 1%nat \/ pc = 2%nat \/ pc = 3%nat \/ pc = 4%nat \/ pc = 5%nat \/ pc = 6%nat \/ pc = 7%nat \/ pc = 8%nat \/ pc = 9%nat \/
  pc = 10%nat \/ pc = 11%nat \/ pc = 12%nat \/ pc = 13%nat \/ pc = 14%nat \/ pc = 15%nat \/ pc = 16%nat \/ pc = 17%nat \/ pc = 18%nat \/ pc = 19%nat.
Proof. lia. Qed.

(** [linv] at a program point, as a test that evaluation decides. *)
Definition linv_ok (y : bool) (pc : nat) (r : regs) : bool :=
  (pc <? 20)%nat &&
  (negb (existsb (Nat.eqb pc) ax_state_pcs) || axval_eqb (ax r) PState) &&
  (negb (pc =? 3)%nat || (bx r =? 1)) &&
  (negb (existsb (Nat.eqb pc) [14; 15; 16]%nat) || axval_eqb (ax r) (if y then PYieldFn else PNull)) &&
  (negb (pc =? 15)%nat || Bool.eqb (zf r) (negb y)) &&
  (negb (pc =? 16)%nat || y).

Lemma axval_eqb_eq a b : axval_eqb a b = true -> a = b.
Proof. destruct a, b; (reflexivity || discriminate). Qed.

Lemma linv_ok_sound y pc r : linv_ok y pc r = true -> linv y (InAcq pc r).
Proof.
  unfold linv_ok. rewrite !andb_true_iff, !orb_true_iff, !negb_true_iff.
  intros (((((Hpc & Hax) & Hbx) & Hy) & Hz) & H16). cbn [linv].
  split; [apply Nat.ltb_lt, Hpc|].
  split.
  { intros Hin. destruct Hax as [Hax|Hax]; [|apply axval_eqb_eq, Hax].
    rewrite <- not_true_iff_false, existsb_exists in Hax. exfalso. apply Hax. exists pc. split; [exact Hin|apply Nat.eqb_refl]. }
  split. { intros ->. destruct Hbx as [Hbx|Hbx]; [discriminate Hbx|apply N.eqb_eq, Hbx]. }
  split. { intros Hin. destruct Hy as [Hy|Hy]; [|apply axval_eqb_eq, Hy]. destruct Hin as [->|[->| ->]]; discriminate Hy. }
  split. { intros ->. destruct Hz as [Hz|Hz]; [discriminate Hz|apply eqb_prop, Hz]. }
  intros ->. destruct H16 as [H16|H16]; [discriminate H16|exact H16].
Qed.

(** Case analysis on the program point of a task inside Acquire, given the clauses of its [linv]:
    [pc] becomes a numeral and the registers (and [y]) that [linv] fixes at that point are replaced by their values. *)
Ltac linv_pc pc Hpc Hax Hbx Hy Hz Hy16 :=
  destruct (pc_cases pc Hpc) as [->|[->|[->|[->|[->|[->|[->|[->|[->|[->|[->|[->|[->|[->|[->|[->|[->|[->|[->| ->]]]]]]]]]]]]]]]]]]];
  try (pose proof (Hax ltac:(repeat (try (left; reflexivity); right))));
  try (pose proof (Hy ltac:(auto)));
  try (pose proof (Hbx eq_refl)); try (pose proof (Hz eq_refl)); try (pose proof (Hy16 eq_refl));
  clear Hax Hbx Hy Hz Hy16; subst.

(** One instruction of the expected program: the local invariant is kept, the routine never faults,
    and ownership changes only by an exchange that finds the lock word 0 and leaves it 1. *)
Lemma exec_inv y pc r i lk h :
  linv y (InAcq pc r) ->
  nth_error (prog expected_cfg) pc = Some i ->
  (lk = 0 \/ lk = 1) ->
  (got (InAcq pc r) = true -> lk = 1) ->
  let '(t', lk') := exec expected_cfg y i pc r lk h in
  linv y t' /\
  ((got t' = got (InAcq pc r) /\ lk' = lk) \/
   (got (InAcq pc r) = false /\ got t' = true /\ lk = 0 /\ lk' = 1)).
Proof.
  intros (Hpc & Hax & Hbx & Hy & Hz & Hy16) Hi Hlk Hg.
  destruct r as [a b c z]. cbn [ax bx cx zf] in *.
  linv_pc pc Hpc Hax Hbx Hy Hz Hy16;
    cbn [nth_error prog expected_cfg] in Hi; injection Hi as <-;
    destruct Hlk as [-> | ->]; try destruct z; try destruct y;
    cbn -[N.eqb w32 N.div N.even N.odd linv] in *;
    try (specialize (Hg eq_refl); try discriminate);
    (split; [ exact I || (apply linv_ok_sound; reflexivity)
            | try (left; split; reflexivity); try (right; repeat split; reflexivity) ]).
  all: destruct (b =? 0); left; split; reflexivity.
Qed.

Lemma exec_no_tmp c y i pc r lk h v : fst (exec c y i pc r lk h) <> Holding (Some v).
Proof.
  unfold exec. destruct i; cbn; try discriminate;
    repeat match goal with |- context [match ?x with _ => _ end] => destruct x; cbn end; discriminate.
Qed.

(** ---- lists: how many members pass a test, under a change of one member ---- *)
Section Count.
  Context {A : Type} (f : A -> bool).
  Notation count l := (length (filter f l)).

  Lemma filter_upd (l : list A) : forall i x x', nth_error l i = Some x ->
    (count (upd l i x') + b2n (f x) = count l + b2n (f x'))%nat.
  Proof.
    induction l as [|a l IH]; intros [|i] x x' H; cbn in H; try discriminate; cbn [upd filter].
    - injection H as ->. destruct (f x), (f x'); cbn; lia.
    - specialize (IH i x x' H). destruct (f a); cbn [length]; lia.
  Qed.

  Lemma filter_nth (l : list A) : forall i x, nth_error l i = Some x -> f x = true -> (1 <= count l)%nat.
  Proof.
    induction l as [|a l IH]; intros [|i] x H Hx; cbn in H; try discriminate; cbn [filter].
    - injection H as ->. rewrite Hx. cbn. lia.
    - specialize (IH i x H Hx). destruct (f a); cbn [length]; lia.
  Qed.

  Lemma filter_two (l : list A) : forall i j x y, i <> j -> nth_error l i = Some x -> nth_error l j = Some y ->
    f x = true -> f y = true -> (2 <= count l)%nat.
  Proof.
    induction l as [|a l IH]; intros [|i] [|j] x y Hne H1 H2 Hx Hy; cbn in H1, H2; try discriminate; try congruence; cbn [filter].
    - injection H1 as ->. rewrite Hx. pose proof (filter_nth l j y H2 Hy). cbn. lia.
    - injection H2 as ->. rewrite Hy. pose proof (filter_nth l i x H1 Hx). cbn. lia.
    - assert (2 <= count l)%nat by (eapply (IH i j); eauto). destruct (f a); cbn [length]; lia.
  Qed.

  Lemma filter_pos (l : list A) : (1 <= count l)%nat -> exists i x, nth_error l i = Some x /\ f x = true.
  Proof.
    induction l as [|a l IH]; cbn; [lia|]. destruct (f a) eqn:E.
    - intros _. exists 0%nat, a. auto.
    - intros H. destruct (IH H) as (i & x & H1 & H2). exists (S i), x. auto.
  Qed.

  Lemma filter_le (g : A -> bool) (l : list A) : (forall x, f x = true -> g x = true) ->
    (count l <= length (filter g l))%nat.
  Proof.
    intros H. induction l as [|a l IH]; cbn; [lia|]. destruct (f a) eqn:F.
    - rewrite (H _ F). cbn. lia.
    - destruct (g a); cbn; lia.
  Qed.
End Count.

Definition count_got (ts : list tstate) : nat := length (filter got ts).

Lemma count_upd ts i t t' : nth_error ts i = Some t ->
  (count_got (upd ts i t') + b2n (got t) = count_got ts + b2n (got t'))%nat.
Proof. apply filter_upd. Qed.

Lemma nth_upd_same {A} (l : list A) : forall i (x y : A), nth_error l i = Some y -> nth_error (upd l i x) i = Some x.
Proof. induction l as [|a l IH]; intros [|i] x y H; cbn in *; try discriminate; eauto. Qed.

Lemma nth_upd_other {A} (l : list A) : forall i j (x : A), i <> j -> nth_error (upd l i x) j = nth_error l j.
Proof. induction l as [|a l IH]; intros [|i] [|j] x H; cbn; try reflexivity; try congruence. apply IH. congruence. Qed.

Lemma upd_length {A} (l : list A) : forall i x, length (upd l i x) = length l.
Proof. induction l as [|a l IH]; intros [|i] x; cbn; auto. Qed.

Lemma Forall_upd {A} (P : A -> Prop) (l : list A) : forall i x, Forall P l -> P x -> Forall P (upd l i x).
Proof.
  induction l as [|a l IH]; intros [|i] x H Hx; cbn; auto; inversion H; subst; constructor; auto.
Qed.

Lemma Forall_upd_weak {A} (P : A -> Prop) (l : list A) : forall i x,
  (forall j y, j <> i -> nth_error l j = Some y -> P y) -> P x -> Forall P (upd l i x).
Proof.
  induction l as [|a l IH]; intros [|i] x H Hx; cbn; auto.
  - constructor; auto. apply Forall_forall. intros y Hy. destruct (In_nth_error _ _ Hy) as [j Hj].
    apply (H (S j)); auto.
  - constructor; [apply (H 0%nat); auto|]. apply IH; auto. intros j y Hne Hj. apply (H (S j)); auto.
Qed.

Lemma Forall_nth {A} (P : A -> Prop) (l : list A) i x : Forall P l -> nth_error l i = Some x -> P x.
Proof. intros H Hn. rewrite Forall_forall in H. apply H. eapply nth_error_In; eauto. Qed.

Lemma got_in_count ts i t : nth_error ts i = Some t -> got t = true -> (1 <= count_got ts)%nat.
Proof. apply filter_nth. Qed.

(** ---- the global invariant ---- *)
Definition tmp_ok (cnt : N) (t : tstate) : Prop := match t with Holding (Some v) => v = cnt | _ => True end.

Definition Inv (y : bool) (s : mstate) : Prop :=
  lock s = N.of_nat (count_got (threads s)) /\
  (count_got (threads s) <= 1)%nat /\
  Forall (linv y) (threads s) /\
  counter s = ndone s /\
  Forall (tmp_ok (counter s)) (threads s).

Lemma init_inv y n : Inv y (init n).
Proof.
  unfold Inv, init. cbn [lock threads counter ndone].
  assert (H: count_got (repeat Idle n) = 0%nat) by (induction n; cbn; auto).
  rewrite H. repeat split; try lia; apply Forall_forall; intros t Ht; apply repeat_spec in Ht; subst; exact I.
Qed.

Lemma tmp_ok_other cnt cnt' ts :
  Forall (tmp_ok cnt) ts -> (forall t, In t ts -> got t = true -> False) -> Forall (tmp_ok cnt') ts.
Proof.
  intros H Hn. rewrite Forall_forall in *. intros t Ht. specialize (H t Ht).
  destruct t as [| | [v|] |]; cbn in *; auto. exfalso. eapply Hn; eauto.
Qed.

Lemma step_inv y s l s' o : Inv y s -> step expected_cfg y s l = Some (s', o) -> Inv y s'.
Proof.
  intros (Hlock & Hcnt & Hl & Hdone & Htmp) Hs. destruct l as [tid ch]. unfold step in Hs.
  destruct (nth_error (threads s) tid) as [t|] eqn:Ht; [|discriminate].
  pose proof (Forall_nth _ _ _ _ Hl Ht) as Hlt.
  pose proof (Forall_nth _ _ _ _ Htmp Ht) as Htt.
  destruct ch; destruct t as [|pc r|[v|]|]; try discriminate.
  - (* StartAcq *)
    injection Hs as <- <-. unfold Inv. cbn [lock counter ndone threads].
    pose proof (count_upd _ _ _ (InAcq 0 entry_regs) Ht) as Hc. cbn in Hc.
    repeat split; try lia; auto.
    + apply Forall_upd; auto; apply entry_linv.
    + apply Forall_upd; auto; exact I.
  - (* Try *)
    injection Hs as <- <-. unfold Inv. cbn [lock counter ndone threads tswap tcmp expected_cfg].
    destruct (N.eqb_spec (lock s) 0) as [E|E].
    + pose proof (count_upd _ _ _ (Holding None) Ht) as Hc. cbn in Hc.
      repeat split; try lia; auto; apply Forall_upd; auto; exact I.
    + pose proof (count_upd _ _ _ Idle Ht) as Hc. cbn in Hc.
      repeat split; try lia; auto; apply Forall_upd; auto; exact I.
  - (* Release *)
    injection Hs as <- <-. unfold Inv. cbn [lock counter ndone threads rstore expected_cfg].
    pose proof (count_upd _ _ _ Idle Ht) as Hc. cbn in Hc.
    repeat split; try lia; auto; apply Forall_upd; auto; exact I.
  - (* CsRead *)
    injection Hs as <- <-. unfold Inv. cbn [lock counter ndone threads].
    pose proof (count_upd _ _ _ (Holding (Some (counter s))) Ht) as Hc. cbn in Hc.
    repeat split; try lia; auto; apply Forall_upd; auto; try exact I. reflexivity.
  - (* CsWrite *)
    injection Hs as <- <-. unfold Inv. cbn [lock counter ndone threads].
    pose proof (count_upd _ _ _ (Holding None) Ht) as Hc. cbn in Hc. cbn in Htt. subst v.
    repeat split; try lia; auto.
    + apply Forall_upd; auto; exact I.
    + apply Forall_upd_weak; [|exact I].
      (* no other task is in the critical section, so nobody holds a stale copy *)
      intros j t Hne Hj. destruct t as [| | [v|] |]; cbn; auto.
      exfalso.
      assert (2 <= count_got (threads s))%nat by (eapply (filter_two got _ tid j); eauto).
      lia.
  - (* one instruction *)
    destruct (nth_error (prog expected_cfg) pc) as [i|] eqn:Hi.
    2:{ exfalso. destruct Hlt as (Hpc & _). apply nth_error_None in Hi. cbn in Hi. lia. }
    assert (Hlk: lock s = 0 \/ lock s = 1) by lia.
    assert (Hg: got (InAcq pc r) = true -> lock s = 1).
    { intros G. pose proof (got_in_count _ _ _ Ht G). lia. }
    pose proof (exec_inv y pc r i (lock s) h Hlt Hi Hlk Hg) as He.
    pose proof (fun v => exec_no_tmp expected_cfg y i pc r (lock s) h v) as Hnt.
    destruct (exec expected_cfg y i pc r (lock s) h) as [t' lk'].
    injection Hs as <- <-. destruct He as (Hl' & Hown). unfold Inv. cbn [lock counter ndone threads].
    pose proof (count_upd _ _ _ t' Ht) as Hc.
    assert (Htmp': tmp_ok (counter s) t').
    { destruct t' as [| | [v|] |]; cbn; auto. exfalso. apply (Hnt v). reflexivity. }
    destruct Hown as [(G & L)|(G0 & G1 & L0 & L1)].
    + rewrite G in Hc. repeat split; try lia; auto; apply Forall_upd; auto.
    + rewrite G0, G1 in Hc. cbn in Hc. repeat split; try lia; auto; apply Forall_upd; auto.
Qed.

(** ---- theorems over all schedules ---- *)
Lemma run_inv y ls : forall s s', Inv y s -> run expected_cfg y s ls = Some s' -> Inv y s'.
Proof.
  induction ls as [|l ls IH]; intros s s' Hi Hr; cbn in Hr.
  - injection Hr as <-. exact Hi.
  - destruct (step expected_cfg y s l) as [[s1 o]|] eqn:E; [|discriminate].
    eapply IH; [|exact Hr]. eapply step_inv; eauto.
Qed.

Lemma holding_is_owner t : is_holding t = true -> got t = true.
Proof. destruct t; cbn; auto; discriminate. Qed.

Lemma holders_le_got ts : (length (filter is_holding ts) <= count_got ts)%nat.
Proof. apply filter_le, holding_is_owner. Qed.

Lemma linv_not_faulted y ts : Forall (linv y) ts -> existsb is_faulted ts = false.
Proof.
  induction 1 as [|t ts Ht _ IH]; cbn; auto. destruct t; cbn in *; auto. contradiction.
Qed.

(** Mutual exclusion, for any number of tasks, any schedule, yieldFn set or not. *)
Theorem mutex_all_schedules :
  forall (n : nat) (y : bool) (ls : list label) (s : mstate),
    run expected_cfg y (init n) ls = Some s ->
    (holders s <= 1)%nat /\ existsb is_faulted (threads s) = false /\
    lock s = N.of_nat (count_got (threads s)) /\ (count_got (threads s) <= 1)%nat.
Proof.
  intros n y ls s Hr. pose proof (run_inv y ls _ _ (init_inv y n) Hr) as (H1 & H2 & H3 & _).
  repeat split; auto.
  - unfold holders. pose proof (holders_le_got (threads s)). lia.
  - eapply linv_not_faulted; eauto.
Qed.

(** A plain counter incremented (read, then write) only inside the critical section never loses an update. *)
Theorem no_lost_update_all_schedules :
  forall n y ls s, run expected_cfg y (init n) ls = Some s -> counter s = ndone s.
Proof.
  intros n y ls s Hr. pose proof (run_inv y ls _ _ (init_inv y n) Hr) as (_ & _ & _ & H & _). exact H.
Qed.

Lemma upd_same {A} (l : list A) : forall i (x : A), nth_error l i = Some x -> upd l i x = l.
Proof. induction l as [|a l IH]; intros [|i] x H; cbn in *; try discriminate; [congruence|f_equal; auto]. Qed.

(** try-acquire returns true exactly when the lock word was free; then the caller owns it. When it
    returns false the machine state is unchanged (no side effect). *)
Theorem try_exact :
  forall y s tid, Inv y s -> nth_error (threads s) tid = Some Idle ->
    exists s', step expected_cfg y s (tid, CTry) = Some (s', Some (lock s =? 0)) /\
      ((lock s = 0 /\ lock s' = 1 /\ nth_error (threads s') tid = Some (Holding None) /\
        (forall j, j <> tid -> nth_error (threads s') j = nth_error (threads s) j) /\ counter s' = counter s)
       \/ (lock s = 1 /\ s' = s)).
Proof.
  intros y s tid (Hlock & Hcnt & _) Ht. unfold step. rewrite Ht. cbn [tcmp tswap expected_cfg].
  eexists. split; [reflexivity|].
  destruct (N.eqb_spec (lock s) 0) as [E|E].
  - left. cbn [lock threads counter]. repeat split; auto.
    + eapply nth_upd_same; eauto.
    + intros j Hj. apply nth_upd_other. congruence.
  - right. assert (lock s = 1) by lia. split; [assumption|].
    rewrite (upd_same _ _ _ Ht). destruct s as [lk c d ts]; cbn [lock counter ndone threads] in *. rewrite H. reflexivity.
Qed.

(** After the holder's release the lock word is 0, nobody owns the lock ... *)
Theorem release_frees :
  forall y s tid, Inv y s -> nth_error (threads s) tid = Some (Holding None) ->
    exists s', step expected_cfg y s (tid, CRelease) = Some (s', None) /\
      lock s' = 0 /\ count_got (threads s') = 0%nat /\ nth_error (threads s') tid = Some Idle.
Proof.
  intros y s tid Hi Ht.
  assert (Hs: step expected_cfg y s (tid, CRelease) = Some ({| lock := 0; counter := counter s; ndone := ndone s; threads := upd (threads s) tid Idle |}, None)).
  { unfold step. rewrite Ht. reflexivity. }
  eexists. split; [exact Hs|].
  pose proof (step_inv _ _ _ _ _ Hi Hs) as (H1 & _). cbn [lock threads] in *.
  repeat split; try lia. eapply nth_upd_same; eauto.
Qed.

(** ... and it can be taken again: a task running alone (its plain reads returning the true lock word)
    gets through Acquire in a fixed number of instructions. *)
Fixpoint solo_thread (c : cfg) (y : bool) (fuel : nat) (t : tstate) (lk : N) : tstate * N :=
  match fuel with
  | O => (t, lk)
  | S fuel =>
      match t with
      | InAcq pc r =>
          match nth_error (prog c) pc with
          | Some i => let '(t', lk') := exec c y i pc r lk lk in solo_thread c y fuel t' lk'
          | None => (Faulted, lk)
          end
      | _ => (t, lk)
      end
  end.

Lemma solo_acquire_thread c y fuel tid : forall s t,
  nth_error (threads s) tid = Some t ->
  let '(t', lk') := solo_thread c y fuel t (lock s) in
  (is_holding t' = true ->
   exists s', solo_acquire c y (S fuel) tid s = (s', true) /\ lock s' = lk' /\ nth_error (threads s') tid = Some t' /\
              (forall j, j <> tid -> nth_error (threads s') j = nth_error (threads s) j)).
Proof.
  induction fuel as [|fuel IH]; intros s t Ht; cbn [solo_thread].
  - intros Hh. destruct t; try discriminate. exists s. cbn [solo_acquire]. rewrite Ht. auto.
  - destruct t as [|pc r|v|]; try (intros Hh; try discriminate; exists s; cbn [solo_acquire]; rewrite Ht; auto; fail).
    destruct (nth_error (prog c) pc) as [i|] eqn:Hi; [|intros Hh; discriminate].
    destruct (exec c y i pc r (lock s) (lock s)) as [t1 lk1] eqn:He.
    set (s1 := {| lock := lk1; counter := counter s; ndone := ndone s; threads := upd (threads s) tid t1 |}).
    assert (Hs: step c y s (tid, CInstr (lock s)) = Some (s1, None)).
    { unfold step. rewrite Ht, Hi, He. reflexivity. }
    assert (Ht1: nth_error (threads s1) tid = Some t1) by (eapply nth_upd_same; eauto).
    specialize (IH s1 t1 Ht1). cbn [lock s1] in IH. fold s1 in IH.
    destruct (solo_thread c y fuel t1 lk1) as [t' lk'].
    intros Hh. destruct (IH Hh) as (s' & R1 & R2 & R3 & R4).
    exists s'. split; [|split; [|split]]; auto.
    + change (solo_acquire c y (S (S fuel)) tid s) with
        (match nth_error (threads s) tid with
         | Some (InAcq _ _) => match step c y s (tid, CInstr (lock s)) with
                               | Some (s0, _) => solo_acquire c y (S fuel) tid s0
                               | None => (s, false) end
         | Some (Holding _) => (s, true)
         | _ => (s, false) end).
      rewrite Ht, Hs. exact R1.
    + intros j Hj. rewrite (R4 j Hj). apply nth_upd_other. congruence.
Qed.

Theorem acquire_after_release :
  forall y s tid, lock s = 0 -> nth_error (threads s) tid = Some Idle ->
    exists s1 s2, step expected_cfg y s (tid, CStartAcq) = Some (s1, None) /\
      solo_acquire expected_cfg y 8 tid s1 = (s2, true) /\
      nth_error (threads s2) tid = Some (Holding None) /\ lock s2 = 1.
Proof.
  intros y s tid Hl Ht.
  set (s1 := {| lock := lock s; counter := counter s; ndone := ndone s; threads := upd (threads s) tid (InAcq 0 entry_regs) |}).
  assert (Hs: step expected_cfg y s (tid, CStartAcq) = Some (s1, None)) by (unfold step; rewrite Ht; reflexivity).
  assert (Ht1: nth_error (threads s1) tid = Some (InAcq 0 entry_regs)) by (eapply nth_upd_same; eauto).
  pose proof (solo_acquire_thread expected_cfg y 7 tid s1 _ Ht1) as H.
  cbn [lock s1] in H. rewrite Hl in H.
  assert (E: solo_thread expected_cfg y 7 (InAcq 0 entry_regs) 0 = (Holding None, 1)) by (destruct y; vm_compute; reflexivity).
  rewrite E in H. destruct (H eq_refl) as (s2 & R1 & R2 & R3 & _).
  exists s1, s2. auto.
Qed.

(** ---- progress: no call blocks forever (as far as the lock itself is concerned) ---- *)
Section Progress.
Local Arguments N.eqb : simpl nomatch.
Local Arguments N.modulo : simpl nomatch.
Local Arguments N.div : simpl nomatch.
Local Arguments N.add : simpl nomatch.
Local Arguments N.sub : simpl nomatch.

(** One lemma per program point, each one instruction plus the lemma of the next point (symbolic
    execution of 30 instructions from every point at once is far too slow). [R a b c z] are the registers. *)
Notation R a b c z := {| ax := a; bx := b; cx := c; zf := z |}.
Notation DONE := (Holding None, 1).

Ltac one_step :=
  let n := fresh "n" in let Hn := fresh "Hn" in
  intros n Hn; destruct n as [|n]; [exfalso; lia|];
  cbn [solo_thread nth_error prog expected_cfg];
  cbn [exec with_ax with_zf set_reg ax bx cx zf attempts expected_cfg].

Lemma solo_done y n : solo_thread expected_cfg y n (Holding None) 1 = DONE.
Proof. destruct n; reflexivity. Qed.

Lemma P6 y b c z : forall n, (1 <= n)%nat -> solo_thread expected_cfg y n (InAcq 6 (R PState b c z)) 1 = DONE.
Proof. one_step. apply solo_done. Qed.
Lemma P5t y b c : forall n, (2 <= n)%nat -> solo_thread expected_cfg y n (InAcq 5 (R PState b c true)) 1 = DONE.
Proof. one_step. apply P6. lia. Qed.
Lemma P4z y c z : forall n, (3 <= n)%nat -> solo_thread expected_cfg y n (InAcq 4 (R PState 0 c z)) 1 = DONE.
Proof. one_step. apply P5t. lia. Qed.
Lemma P3 y c z : forall n, (4 <= n)%nat -> solo_thread expected_cfg y n (InAcq 3 (R PState 1 c z)) 0 = DONE.
Proof. one_step. apply P4z. lia. Qed.
Lemma P2 y b c z : forall n, (5 <= n)%nat -> solo_thread expected_cfg y n (InAcq 2 (R PState b c z)) 0 = DONE.
Proof. one_step. apply P3. lia. Qed.
Lemma P1 y b c z : forall n, (6 <= n)%nat -> solo_thread expected_cfg y n (InAcq 1 (R PState b c z)) 0 = DONE.
Proof. one_step. apply P2. lia. Qed.
Lemma P0 y a b c z : forall n, (7 <= n)%nat -> solo_thread expected_cfg y n (InAcq 0 (R a b c z)) 0 = DONE.
Proof. one_step. apply P1. lia. Qed.
Lemma P10t y b c : forall n, (6 <= n)%nat -> solo_thread expected_cfg y n (InAcq 10 (R PState b c true)) 0 = DONE.
Proof. one_step. apply P2. lia. Qed.
Lemma P9z y c z : forall n, (7 <= n)%nat -> solo_thread expected_cfg y n (InAcq 9 (R PState 0 c z)) 0 = DONE.
Proof. one_step. apply P10t. lia. Qed.
Lemma P8 y b c z : forall n, (8 <= n)%nat -> solo_thread expected_cfg y n (InAcq 8 (R PState b c z)) 0 = DONE.
Proof. one_step. apply P9z. lia. Qed.
Lemma P7 y b c z : forall n, (9 <= n)%nat -> solo_thread expected_cfg y n (InAcq 7 (R PState b c z)) 0 = DONE.
Proof. one_step. apply P8. lia. Qed.
Lemma P19 y b c z : forall n, (10 <= n)%nat -> solo_thread expected_cfg y n (InAcq 19 (R PState b c z)) 0 = DONE.
Proof. one_step. apply P7. lia. Qed.
Lemma P18 y b c z : forall n, (11 <= n)%nat -> solo_thread expected_cfg y n (InAcq 18 (R PState b c z)) 0 = DONE.
Proof. one_step. apply P19. lia. Qed.
Lemma P17 y a b c z : forall n, (12 <= n)%nat -> solo_thread expected_cfg y n (InAcq 17 (R a b c z)) 0 = DONE.
Proof. one_step. apply P18. lia. Qed.
Lemma P16 y b c z : forall n, (13 <= n)%nat -> solo_thread expected_cfg y n (InAcq 16 (R PYieldFn b c z)) 0 = DONE.
Proof. one_step. apply P17. lia. Qed.
Lemma P15 y b c : forall n, (14 <= n)%nat ->
  solo_thread expected_cfg y n (InAcq 15 (R (if y then PYieldFn else PNull) b c (negb y))) 0 = DONE.
Proof. destruct y; one_step; [apply P16|apply P17]; lia. Qed.
Lemma P14 y b c z : forall n, (15 <= n)%nat ->
  solo_thread expected_cfg y n (InAcq 14 (R (if y then PYieldFn else PNull) b c z)) 0 = DONE.
Proof. destruct y; one_step; [apply (P15 true)|apply (P15 false)]; lia. Qed.
Lemma P13 y b c z : forall n, (16 <= n)%nat -> solo_thread expected_cfg y n (InAcq 13 (R PState b c z)) 0 = DONE.
Proof. one_step. apply P14. lia. Qed.
Lemma P12 y b c z : forall n, (17 <= n)%nat -> solo_thread expected_cfg y n (InAcq 12 (R PState b c z)) 0 = DONE.
Proof. destruct z; one_step; [apply P13|apply P7]; lia. Qed.
Lemma P11 y b c z : forall n, (18 <= n)%nat -> solo_thread expected_cfg y n (InAcq 11 (R PState b c z)) 0 = DONE.
Proof. one_step. apply P12. lia. Qed.
Lemma P10f y b c : forall n, (19 <= n)%nat -> solo_thread expected_cfg y n (InAcq 10 (R PState b c false)) 0 = DONE.
Proof. one_step. apply P11. lia. Qed.
Lemma P9 y b c z : forall n, (20 <= n)%nat -> solo_thread expected_cfg y n (InAcq 9 (R PState b c z)) 0 = DONE.
Proof. one_step. destruct (b =? 0); [apply P10t|apply P10f]; lia. Qed.
Lemma P5f y b c : forall n, (10 <= n)%nat -> solo_thread expected_cfg y n (InAcq 5 (R PState b c false)) 0 = DONE.
Proof. one_step. apply P7. lia. Qed.
Lemma P4n y b c z : (b =? 0) = false -> forall n, (11 <= n)%nat -> solo_thread expected_cfg y n (InAcq 4 (R PState b c z)) 0 = DONE.
Proof. intros Hb. one_step. rewrite Hb. apply P5f. lia. Qed.

(** a task anywhere inside Acquire that does not own the lock gets it within 30 of its own
    instructions once the lock word is 0 (its plain reads returning the true value) *)
Lemma spin_progress y pc r :
  linv y (InAcq pc r) -> got (InAcq pc r) = false ->
  solo_thread expected_cfg y 30 (InAcq pc r) 0 = (Holding None, 1).
Proof.
  intros (Hpc & Hax & Hbx & Hy & Hz & Hy16) Hg.
  destruct r as [a b c z]. cbn [ax bx cx zf] in *.
  linv_pc pc Hpc Hax Hbx Hy Hz Hy16; cbn [got bx zf] in Hg; try discriminate.
  - apply P0; lia.
  - apply P1; lia.
  - apply P2; lia.
  - apply P3; lia.
  - apply P4n; [exact Hg|lia].
  - subst z. apply P5f; lia.
  - apply P7; lia.
  - apply P8; lia.
  - apply P9; lia.
  - destruct z; [apply P10t|apply P10f]; lia.
  - apply P11; lia.
  - apply P12; lia.
  - apply P13; lia.
  - apply P14; lia.
  - apply P15; lia.
  - apply (P16 true); lia.
  - apply P17; lia.
  - apply P18; lia.
  - apply P19; lia.
Qed.

(** a task that owns the lock but is still inside Acquire returns within 3 instructions *)
Lemma got_progress y pc r :
  linv y (InAcq pc r) -> got (InAcq pc r) = true ->
  solo_thread expected_cfg y 3 (InAcq pc r) 1 = (Holding None, 1).
Proof.
  intros (Hpc & Hax & Hbx & Hy & Hz & Hy16) Hg.
  destruct r as [a b c z]. cbn [ax bx cx zf] in *.
  linv_pc pc Hpc Hax Hbx Hy Hz Hy16; cbn [got bx zf] in Hg; try discriminate.
  - cbn. rewrite Hg. reflexivity.
  - subst z. reflexivity.
  - reflexivity.
Qed.
End Progress.

(** From every reachable state: if the lock word is 0, ANY task that is inside Acquire completes it on
    its own within 31 steps; if it is 1, the task that owns the lock is either in its critical section
    (where Release is enabled) or completes Acquire on its own within 4 steps. So some task can always
    finish its current lock operation: the lock itself never deadlocks. *)
Theorem lock_progress y s :
  Inv y s ->
  (lock s = 0 -> forall tid pc r, nth_error (threads s) tid = Some (InAcq pc r) ->
     exists s', solo_acquire expected_cfg y 31 tid s = (s', true) /\ nth_error (threads s') tid = Some (Holding None)) /\
  (lock s = 1 -> exists u t, nth_error (threads s) u = Some t /\ got t = true /\
     match t with
     | InAcq pc r => exists s', solo_acquire expected_cfg y 4 u s = (s', true) /\ nth_error (threads s') u = Some (Holding None)
     | _ => is_holding t = true
     end).
Proof.
  intros (Hlock & Hcnt & Hl & _). split.
  - intros L0 tid pc r Ht.
    pose proof (Forall_nth _ _ _ _ Hl Ht) as Hlt.
    assert (Hg: got (InAcq pc r) = false).
    { destruct (got (InAcq pc r)) eqn:E; auto. pose proof (got_in_count _ _ _ Ht E). lia. }
    pose proof (solo_acquire_thread expected_cfg y 30 tid s _ Ht) as H.
    rewrite L0, (spin_progress y pc r Hlt Hg) in H. destruct (H eq_refl) as (s' & R1 & _ & R3 & _).
    exists s'. auto.
  - intros L1. assert (Hc: (1 <= count_got (threads s))%nat) by lia.
    destruct (filter_pos got _ Hc) as (u & t & Ht & Hg). exists u, t. repeat split; auto.
    destruct t as [|pc r|v|]; try (cbn in Hg; discriminate); auto.
    pose proof (Forall_nth _ _ _ _ Hl Ht) as Hlt.
    pose proof (solo_acquire_thread expected_cfg y 3 u s _ Ht) as H.
    rewrite L1, (got_progress y pc r Hlt Hg) in H. destruct (H eq_refl) as (s' & R1 & _ & R3 & _).
    exists s'. auto.
Qed.

(** ---- the states the program regenerated from the current source tree reaches ---- *)
Definition Reachable (n : nat) (y : bool) (s : mstate) : Prop := exists ls, run gen_cfg y (init n) ls = Some s.

Lemma reachable_inv n y s : Reachable n y s -> Inv y s.
Proof. intros [ls H]. rewrite (proj1 gen_matches) in H. eapply run_inv; [apply init_inv|exact H]. Qed.
