(** Proofs for Sync/Serial.v: one interleaved step of disciplined tasks is matched by zero or one serial steps
    ([sim_step]); hence every interleaved run is serializable. *)
From Coq Require Import List Arith Bool Lia.
From FF Require Import Sync.Serial.
Import ListNotations.

Section Proofs.
  Context {S L R : Type}.
  Variable code : L -> @action S L R.
  Variable holds : L -> bool.
  Hypothesis D : disciplined code holds.

  Notation cstep := (cstep code).
  Notation sstep := (sstep code holds).
  Notation crit := (crit code).
  Notation partial := (partial code).

  Lemma upd_same (f : nat -> L) t l : upd f t l t = l.
  Proof. unfold upd. rewrite Nat.eqb_refl. reflexivity. Qed.
  Lemma upd_other (f : nat -> L) t l u : u <> t -> upd f t l u = f u.
  Proof. intros H. unfold upd. destruct (Nat.eqb_spec u t); congruence. Qed.

  Lemma partial_snoc_shared s0 l0 s l f :
    partial s0 l0 s l -> code l = AShared f -> partial s0 l0 (fst (f s)) (snd (f s)).
  Proof.
    induction 1 as [s l|s l f0 s' l' Hc _ IH|s l l1 s' l' Hc _ IH]; intros Hf.
    - eapply p_shared; [exact Hf|apply p_refl].
    - eapply p_shared; [exact Hc|apply IH; exact Hf].
    - eapply p_local; [exact Hc|apply IH; exact Hf].
  Qed.

  Lemma partial_snoc_local s0 l0 s l l' :
    partial s0 l0 s l -> code l = ALocal l' -> partial s0 l0 s l'.
  Proof.
    induction 1 as [s l|s l f0 s' l2 Hc _ IH|s l l1 s' l2 Hc _ IH]; intros Hf.
    - eapply p_local; [exact Hf|apply p_refl].
    - eapply p_shared; [exact Hc|apply IH; exact Hf].
    - eapply p_local; [exact Hc|apply IH; exact Hf].
  Qed.

  Lemma partial_rel s0 l0 s l l' :
    partial s0 l0 s l -> code l = ARel l' -> crit s0 l0 s l'.
  Proof.
    induction 1 as [s l|s l f0 s' l2 Hc _ IH|s l l1 s' l2 Hc _ IH]; intros Hf.
    - apply crit_rel; exact Hf.
    - eapply crit_shared; [exact Hc|apply IH; exact Hf].
    - eapply crit_local; [exact Hc|apply IH; exact Hf].
  Qed.

  (** the mutex really is held by exactly the task that is inside *)
  Lemma lockinv_step g g' : lockinv holds g -> cstep g g' -> lockinv holds g'.
  Proof.
    intros I H. destruct D as [Dacq Drel Dsh Dloc Ddone].
    inversion H as [g0 t l' Hc Ho|g0 t l' Hc|g0 t f Hc|g0 t l' Hc|g0 t r l' Hc]; subst; intros u; cbn [loc owner].
    - destruct (Dacq _ _ Hc) as [H1 H2]. destruct (Nat.eq_dec u t) as [->|Hne].
      + rewrite upd_same. split; auto.
      + rewrite upd_other by exact Hne. split.
        * intros Hh. apply I in Hh. congruence.
        * intros E. injection E as E. congruence.
    - destruct (Drel _ _ Hc) as [H1 H2]. apply I in H1. destruct (Nat.eq_dec u t) as [->|Hne].
      + rewrite upd_same. split; [congruence|discriminate].
      + rewrite upd_other by exact Hne. split; [|discriminate].
        intros Hh. apply I in Hh. rewrite H1 in Hh. injection Hh as Hh. congruence.
    - destruct (Dsh _ _ Hc) as [H1 H2]. apply I in H1. destruct (Nat.eq_dec u t) as [->|Hne].
      + rewrite upd_same. split; auto.
      + rewrite upd_other by exact Hne. apply I.
    - pose proof (Dloc _ _ Hc) as H1. destruct (Nat.eq_dec u t) as [->|Hne].
      + rewrite upd_same. rewrite H1. apply I.
      + rewrite upd_other by exact Hne. apply I.
    - destruct (Ddone _ _ _ Hc) as [H1 H2]. destruct (Nat.eq_dec u t) as [->|Hne].
      + rewrite upd_same. split; [congruence|]. intros E. apply I in E. congruence.
      + rewrite upd_other by exact Hne. apply I.
  Qed.

  Lemma same_loc_upd (a b : nat -> L) t l : same_loc a b -> same_loc (upd a t l) (upd b t l).
  Proof. intros H u. unfold upd. destruct (Nat.eqb u t); auto. Qed.

  (** one interleaved step is matched by zero or one serial steps *)
  Lemma sim_step g g1 g' :
    lockinv holds g -> sim code g g' -> cstep g g1 ->
    exists g1', (g1' = g' \/ sstep g' g1') /\ sim code g1 g1'.
  Proof.
    intros I (Hh & Ho' & Hm) H. destruct D as [Dacq Drel Dsh Dloc Ddone].
    inversion H as [g0 t l' Hc Ho|g0 t l' Hc|g0 t f Hc|g0 t l' Hc|g0 t r l' Hc]; subst.
    - (* Acquire: the serial run waits *)
      rewrite Ho in Hm. destruct Hm as [Hs Hl].
      exists g'. split; [left; reflexivity|].
      unfold sim. cbn [hist owner sh loc]. repeat split; auto.
      + intros u Hne. rewrite upd_other by exact Hne. apply Hl.
      + exists l'. split; [rewrite <- Hl; exact Hc|]. rewrite upd_same, Hs. apply p_refl.
    - (* Release: the serial run executes the whole critical section now *)
      destruct (Drel _ _ Hc) as [H1 H2]. apply I in H1. rewrite H1 in Hm.
      destruct Hm as [Hl (l1 & Hc1 & Hp)].
      pose proof (partial_rel _ _ _ _ _ Hp Hc) as Hcrit.
      exists {| sh := sh g; owner := None; loc := upd (loc g') t l'; hist := hist g' |}.
      split; [right; eapply SCrit; eauto|].
      unfold sim. cbn [hist owner sh loc]. repeat split; auto.
      intros u. unfold upd. destruct (Nat.eqb_spec u t); auto.
    - (* shared step: only the owner can do it *)
      destruct (Dsh _ _ Hc) as [H1 H2]. apply I in H1. rewrite H1 in Hm.
      destruct Hm as [Hl (l1 & Hc1 & Hp)].
      exists g'. split; [left; reflexivity|].
      unfold sim. cbn [hist owner sh loc]. rewrite H1. repeat split; auto.
      + intros u Hne. rewrite upd_other by exact Hne. apply Hl; exact Hne.
      + exists l1. split; [exact Hc1|]. rewrite upd_same. eapply partial_snoc_shared; eauto.
    - (* local step *)
      destruct (owner g) as [o|] eqn:Eo.
      + destruct Hm as [Hl (l1 & Hc1 & Hp)]. destruct (Nat.eq_dec t o) as [->|Hne].
        * (* the owner, inside its critical section *)
          exists g'. split; [left; reflexivity|].
          unfold sim. cbn [hist owner sh loc]. repeat split; auto.
          -- intros u Hne. rewrite upd_other by exact Hne. apply Hl; exact Hne.
          -- exists l1. split; [exact Hc1|]. rewrite upd_same. eapply partial_snoc_local; eauto.
        * (* another task, outside *)
          assert (Hnh: holds (loc g t) = false).
          { destruct (holds (loc g t)) eqn:E; auto. apply I in E. congruence. }
          exists {| sh := sh g'; owner := None; loc := upd (loc g') t l'; hist := hist g' |}.
          split; [right; apply SLocal; rewrite <- Hl by exact Hne; auto|].
          unfold sim. cbn [hist owner sh loc]. repeat split; auto.
          -- intros u Hu. unfold upd. destruct (Nat.eqb_spec u t); auto.
          -- exists l1. rewrite !upd_other by congruence. auto.
      + destruct Hm as [Hs Hl].
        assert (Hnh: holds (loc g t) = false).
        { destruct (holds (loc g t)) eqn:E; auto. apply I in E. congruence. }
        exists {| sh := sh g'; owner := None; loc := upd (loc g') t l'; hist := hist g' |}.
        split; [right; apply SLocal; rewrite <- Hl; auto|].
        unfold sim. cbn [hist owner sh loc]. repeat split; auto using same_loc_upd.
    - (* a call completes: outside any critical section *)
      destruct (Ddone _ _ _ Hc) as [H1 H2].
      destruct (owner g) as [o|] eqn:Eo.
      + destruct Hm as [Hl (l1 & Hc1 & Hp)].
        assert (Hne: t <> o). { intros ->. assert (holds (loc g o) = true) by (apply I; exact Eo). congruence. }
        exists {| sh := sh g'; owner := None; loc := upd (loc g') t l'; hist := hist g' ++ [(t, r)] |}.
        split; [right; apply SDone; rewrite <- Hl by exact Hne; auto|].
        unfold sim. cbn [hist owner sh loc]. repeat split; auto.
        -- rewrite Hh. reflexivity.
        -- intros u Hu. unfold upd. destruct (Nat.eqb_spec u t); auto.
        -- exists l1. rewrite !upd_other by congruence. auto.
      + destruct Hm as [Hs Hl].
        exists {| sh := sh g'; owner := None; loc := upd (loc g') t l'; hist := hist g' ++ [(t, r)] |}.
        split; [right; apply SDone; rewrite <- Hl; auto|].
        unfold sim. cbn [hist owner sh loc]. repeat split; auto using same_loc_upd.
        rewrite Hh. reflexivity.
  Qed.

  Lemma initial_lockinv (g : @st S L R) : initial holds g -> lockinv holds g.
  Proof. intros [Ho Hh] u. rewrite Ho, Hh. split; discriminate. Qed.

  Lemma initial_sim (g : @st S L R) : initial holds g -> sim code g g.
  Proof. intros [Ho Hh]. unfold sim. rewrite Ho. repeat split; auto. Qed.

  (** Every interleaved execution of disciplined tasks is matched by a serial execution: same history of
      results; and whenever nobody is inside a critical section, the same shared state and local states. *)
  Theorem serializable (g0 g : @st S L R) :
    initial holds g0 -> star cstep g0 g ->
    lockinv holds g /\ exists g', star sstep g0 g' /\ sim code g g'.
  Proof.
    intros Hi Hs. induction Hs as [g|g1 g2 g3 Hs IH Hstep].
    - split; [apply initial_lockinv; exact Hi|]. exists g. split; [apply star_refl|apply initial_sim; exact Hi].
    - destruct (IH Hi) as (I & g' & Hs' & Hsim).
      split; [eapply lockinv_step; eauto|].
      destruct (sim_step _ _ _ I Hsim Hstep) as (g1' & [-> | Hss] & Hsim').
      + exists g'. auto.
      + exists g1'. split; [eapply star_step; eauto|exact Hsim'].
  Qed.

  Corollary serializable_quiescent (g0 g : @st S L R) :
    initial holds g0 -> star cstep g0 g -> owner g = None ->
    exists g', star sstep g0 g' /\ hist g = hist g' /\ sh g = sh g' /\ same_loc (loc g) (loc g').
  Proof.
    intros Hi Hs Ho. destruct (serializable _ _ Hi Hs) as (_ & g' & Hs' & (Hh & _ & Hm)).
    rewrite Ho in Hm. destruct Hm as [H1 H2]. exists g'. auto.
  Qed.

  (** at most one task is ever inside a critical section, and it is the mutex owner *)
  Corollary one_inside (g0 g : @st S L R) t u :
    initial holds g0 -> star cstep g0 g -> holds (loc g t) = true -> holds (loc g u) = true -> t = u.
  Proof.
    intros Hi Hs Ht Hu. destruct (serializable _ _ Hi Hs) as (I & _).
    apply I in Ht. apply I in Hu. congruence.
  Qed.
End Proofs.
