(** The allocator's task programs (Sync/AllocTasks.v) obey the lock discipline, so every concurrent run of calls is a
    serial history of [Pmm.Bitmap.step]; with the sequential theorems of Pmm: no frame is handed out twice. *)
From Coq Require Import NArith List Bool Lia Arith.
From FF Require Import Pmm.Bitmap Sync.Serial Sync.SerialProofs Sync.AllocTasks.
Import ListNotations.

Lemma alloc_disciplined : disciplined code holds.
Proof.
  constructor.
  - intros [td p] l' H. unfold code in H. cbn in H. destruct p; try discriminate.
    destruct td as [|o rest]; try discriminate. injection H as <-. auto.
  - intros [td p] l' H. unfold code in H. cbn in H. destruct p; try discriminate; [destruct td; discriminate|].
    injection H as <-. auto.
  - intros [td p] f H. unfold code in H. cbn in H. destruct p; try discriminate; [destruct td; discriminate|].
    injection H as <-. auto.
  - intros [td p] l' H. unfold code in H. cbn in H. destruct p; try discriminate. destruct td; discriminate.
  - intros [td p] r l' H. unfold code in H. cbn in H. destruct p; try discriminate; [destruct td; discriminate|].
    injection H as <- <-. auto.
Qed.

Lemma final_app a ops o : final a (ops ++ [o]) = fst (step (final a ops) o).
Proof. unfold final. rewrite fold_left_app. reflexivity. Qed.

Lemma results_app a ops o : results a (ops ++ [o]) = results a ops ++ [snd (step (final a ops) o)].
Proof.
  revert a. induction ops as [|x ops IH]; intros a; cbn; [reflexivity|]. rewrite IH. reflexivity.
Qed.

Section Serial.
  Variable a0 : balloc.
  Variable plan : nat -> list op.

  Definition planned (o : op) : Prop := exists t, In o (plan t).

  (** what a serial state looks like *)
  Definition SInv (g : @st balloc tl res) : Prop :=
    owner g = None /\
    exists ops,
      sh g = final a0 ops /\ Forall planned ops /\
      Forall (fun e => In (snd e) (results a0 ops)) (hist g) /\
      (forall t, incl (todo (loc g t)) (plan t)) /\
      (forall t, match ph (loc g t) with
                 | PIdle => True
                 | PRet r => In r (results a0 ops)
                 | _ => False
                 end).

  Lemma crit_alloc (s : balloc) l s' l' :
    crit code s l s' l' -> forall o, ph l = PIn o ->
    s' = fst (step s o) /\ l' = {| todo := todo l; ph := PRet (snd (step s o)) |}.
  Proof.
    intros H o Hp. destruct l as [td p]. cbn in Hp. subst p.
    inversion H as [s0 l0 l1 Hc|s0 l0 f s1 l1 Hc Hrest|s0 l0 l1 s1 l2 Hc Hrest]; subst;
      unfold code in Hc; cbn in Hc; try discriminate.
    injection Hc as <-. cbn in Hrest.
    inversion Hrest as [s0 l0 l1 Hc|s0 l0 f s1 l1 Hc _|s0 l0 l1 s1 l2 Hc _]; subst;
      unfold code in Hc; cbn in Hc; try discriminate.
    injection Hc as <-. auto.
  Qed.

  Lemma sinv_step g g' : SInv g -> sstep code holds g g' -> SInv g'.
  Proof.
    intros (Ho & ops & Hs & Hpl & Hh & Htd & Hph) H.
    inversion H as [g1 t l1 s' l' Hc Hcrit|g1 t l' Hc Hn|g1 t r l' Hc]; subst.
    - (* a whole critical section *)
      unfold code in Hc. pose proof (Hph t) as Hpt. pose proof (Htd t) as Htdt.
      destruct (loc g t) as [td p] eqn:El. cbn in Hc, Hpt, Htdt. destruct p; try discriminate; try contradiction.
      destruct td as [|o rest]; [discriminate|]. injection Hc as <-.
      destruct (crit_alloc _ _ _ _ Hcrit o eq_refl) as [-> ->]. cbn [todo].
      split; [reflexivity|]. exists (ops ++ [o]). cbn [sh hist loc].
      rewrite final_app, results_app, Hs. repeat split.
      + apply Forall_app. split; [exact Hpl|]. constructor; [|constructor]. exists t. apply Htdt. left. reflexivity.
      + eapply Forall_impl; [|exact Hh]. intros e He. apply in_or_app. left. exact He.
      + intros u. unfold upd. destruct (Nat.eqb_spec u t) as [->|Hne]; cbn.
        * intros x Hx. apply Htdt. right. exact Hx.
        * apply Htd.
      + intros u. unfold upd. destruct (Nat.eqb_spec u t) as [->|Hne]; cbn.
        * apply in_or_app. right. left. reflexivity.
        * pose proof (Hph u) as Hpu. destruct (ph (loc g u)); auto. apply in_or_app. left. exact Hpu.
    - exfalso. unfold code in Hc. destruct (loc g t) as [td p]. cbn in Hc. destruct p; try discriminate. destruct td; discriminate.
    - unfold code in Hc. pose proof (Hph t) as Hpt. pose proof (Htd t) as Htdt.
      destruct (loc g t) as [td p] eqn:El. cbn in Hc, Hpt, Htdt.
      destruct p; try discriminate; [destruct td; discriminate|]. injection Hc as <- <-.
      split; [reflexivity|]. exists ops. cbn [sh hist loc]. repeat split; auto.
      + apply Forall_app. split; [exact Hh|]. constructor; [exact Hpt|constructor].
      + intros u. unfold upd. destruct (Nat.eqb_spec u t) as [->|Hne]; cbn; [exact Htdt|apply Htd].
      + intros u. unfold upd. destruct (Nat.eqb_spec u t) as [->|Hne]; cbn; [exact I|apply Hph].
  Qed.
End Serial.

Section Main.
  Variable a0 : balloc.
  Variable plan : nat -> list op.

  Lemma start_sinv : SInv a0 plan (start a0 plan).
  Proof.
    split; [reflexivity|]. exists []. cbn. repeat split; auto.
    intros t x Hx. exact Hx.
  Qed.

  Lemma star_sinv g : star (sstep code holds) (start a0 plan) g -> SInv a0 plan g.
  Proof.
    intros H. remember (start a0 plan) as g0 eqn:E0.
    induction H as [g1|g1 g2 g3 _ IH Hs]; [subst; apply start_sinv|]. eapply sinv_step; eauto.
  Qed.

  Lemma start_initial : initial holds (start a0 plan).
  Proof. split; reflexivity. Qed.

  (** Any number of tasks, any plans of AllocFrame/FreeFrame calls, any interleaving: whenever nobody is
      inside the allocator, its state is the state after SOME sequential history [ops] of planned calls,
      and every result a caller has been handed is a result of that sequential history. *)
  Theorem concurrent_alloc_is_serial g :
    star (cstep code) (start a0 plan) g -> owner g = None ->
    exists ops, sh g = final a0 ops /\ Forall (planned plan) ops /\
                Forall (fun e => In (snd e) (results a0 ops)) (hist g).
  Proof.
    intros Hs Ho.
    destruct (serializable_quiescent code holds alloc_disciplined _ _ start_initial Hs Ho) as (g' & Hs' & Hh & Hsh & _).
    destruct (star_sinv g' Hs') as (_ & ops & H1 & H2 & H3 & _).
    exists ops. rewrite Hsh, Hh. auto.
  Qed.
End Main.

(** ---- composition with the sequential theorems of C01/C03 ---- *)
From FF Require Import Lib.Word Pmm.Boot Pmm.BootProofs Pmm.BitmapProofs Pmm.HistoryProofs Pmm.InitProofs Pmm.TopProofs.

Lemma exclusive_no_panic U : forall ops a H,
  exclusive U H (combine ops (map fst (run a ops))) -> map fst (run a ops) = results a ops.
Proof.
  induction ops as [|o ops IH]; intros a H Hx; [reflexivity|].
  cbn [run results]. destruct (step a o) as [a' r] eqn:Es. cbn [fst snd].
  destruct r as [r|fr].
  - cbn [map fst]. f_equal. cbn [run] in Hx. rewrite Es in Hx. cbn [map fst combine] in Hx.
    destruct o; destruct r; cbn [exclusive] in Hx; try (eapply IH; exact Hx); try (destruct Hx as (_ & _ & Hx); eapply IH; exact Hx).
  - cbn [run] in Hx. rewrite Es in Hx. destruct fr; cbn [map fst combine] in Hx |- *.
    + f_equal. destruct o; cbn [exclusive] in Hx; [eapply IH; exact Hx|destruct Hx as (_ & Hx); eapply IH; exact Hx].
    + f_equal. destruct o; cbn [exclusive] in Hx; eapply IH; exact Hx.
    + f_equal. destruct o; cbn [exclusive] in Hx; eapply IH; exact Hx.
    + destruct o; cbn [exclusive] in Hx; contradiction.
Qed.

(** After a successful pmm.Init, for any number of concurrent callers with any plans of AllocFrame /
    FreeFrame calls (frees of frames reserved at initialisation excluded, as in C01/C03) and ANY
    interleaving: whenever nobody is inside the allocator there is a sequential history [ops] of the
    planned calls such that the allocator state is the state after [ops]; along [ops] every frame handed
    out is usable and not held by anybody (no frame is ever held by two callers); the totals agree with
    usable minus held frames at every step; and every result handed to a caller is a result of [ops]. *)
Theorem concurrent_frames_exclusive
  (m : memmap) (kstart kend limit mapfail : N) (a0 : balloc) (b0 : bstate) (obs : init_obs) (plan : nat -> list op) g :
  WFmap m -> WFkernel m kstart kend -> small_map m ->
  pmm_init m kstart kend limit mapfail = (InitOk a0 b0, obs) ->
  (forall t, history_ok m kstart kend (early_frames obs) (plan t)) ->
  star (cstep code) (start a0 plan) g -> owner g = None ->
  exists ops,
    sh g = final a0 ops /\ Forall (planned plan) ops /\
    exclusive (usable m kstart kend (early_frames obs)) [] (combine ops (map fst (run a0 ops))) /\
    stats_ok (total_frames m) (usable_count m kstart kend (early_frames obs)) 0 (run a0 ops) /\
    Forall (fun e => In (snd e) (map fst (run a0 ops))) (hist g).
Proof.
  intros Hm Hk Hs Hi Hp Hstar Ho.
  destruct (concurrent_alloc_is_serial a0 plan g Hstar Ho) as (ops & H1 & H2 & H3).
  assert (Hok: history_ok m kstart kend (early_frames obs) ops).
  { intros f Hf. rewrite Forall_forall in H2. destruct (H2 _ Hf) as [t Ht]. exact (Hp t f Ht). }
  pose proof (alloc_exclusive m kstart kend limit mapfail Hm Hk Hs a0 b0 obs Hi ops Hok) as Hx.
  pose proof (history_stats m kstart kend limit mapfail Hm Hk Hs a0 b0 obs Hi ops Hok) as Hst.
  exists ops. repeat split; auto.
  rewrite (exclusive_no_panic _ _ _ _ Hx). exact H3.
Qed.
