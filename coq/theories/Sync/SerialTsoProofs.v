(** Proofs about Sync/SerialTso.v: a lock-disciplined load/store program run under x86-TSO store
    buffering is matched, step by step, by a run of the same program under the interleaving semantics
    of Sync/Serial.v (flushes are stutter steps), and therefore - by [serializable] - by a serial
    execution of its critical sections. *)
From Coq Require Import List Arith Bool Lia.
From FF Require Import Sync.Serial Sync.SerialProofs Sync.SerialTso.
Import ListNotations.

Section Proofs.
  Context {V L R : Type}.
  Variable code : L -> @taction V L R.
  Variable holds : L -> bool.
  Hypothesis D : tdisciplined code holds.

  Notation mem := (@mem V).
  Notation sc := (sc_code code).

  Lemma sc_disciplined : disciplined sc holds.
  Proof.
    destruct D as [Dacq Drel Dload Dstore Dlocal Ddone].
    constructor.
    - intros l l' H. unfold sc_code in H. destruct (code l) eqn:E; try discriminate. injection H as <-. eauto.
    - intros l l' H. unfold sc_code in H. destruct (code l) eqn:E; try discriminate. injection H as <-. eauto.
    - intros l f H. unfold sc_code in H. destruct (code l) eqn:E; try discriminate; injection H as <-.
      + destruct (Dload _ _ _ E) as [H1 H2]. split; [exact H1|]. intros s. cbn. apply H2.
      + destruct (Dstore _ _ _ _ E) as [H1 H2]. split; [exact H1|]. intros s. cbn. exact H2.
    - intros l l' H. unfold sc_code in H. destruct (code l) eqn:E; try discriminate. injection H as <-. eauto.
    - intros l r l' H. unfold sc_code in H. destruct (code l) eqn:E; try discriminate. injection H as <- <-. eauto.
  Qed.

  Lemma bview_app_w buf : forall (m : mem) a v, bview (buf ++ [BW a v]) m = mupd (bview buf m) a v.
  Proof. induction buf as [|e buf IH]; intros m a v; cbn; [reflexivity|]. destruct e; apply IH. Qed.

  Lemma bview_app_u buf : forall (m : mem), bview (buf ++ [@BUnlock V]) m = bview buf m.
  Proof. induction buf as [|e buf IH]; intros m; cbn; [reflexivity|]. destruct e; apply IH. Qed.

  Lemma bupd_same (f : nat -> list (@bentry V)) t b : bupd f t b t = b.
  Proof. unfold bupd. rewrite Nat.eqb_refl. reflexivity. Qed.
  Lemma bupd_other (f : nat -> list (@bentry V)) t b u : u <> t -> bupd f t b u = f u.
  Proof. intros H. unfold bupd. destruct (Nat.eqb_spec u t); congruence. Qed.

  Lemma loc_upd (a b : nat -> L) t l : (forall u, a u = b u) -> forall u, upd a t l u = upd b t l u.
  Proof. intros H u. unfold upd. destruct (Nat.eqb u t); auto. Qed.

  (** a task inside its critical section owns the mutex word, has no release pending, and the
      interleaving run's shared state is memory as this task sees it *)
  Lemma holder_is_owner (g : @tst V L R) c t :
    lockinv holds c -> tsim holds g c -> holds (tloc g t) = true ->
    tlock g = Some t /\ existsb is_unlock (tbuf g t) = false /\ owner c = Some t /\
    sh c = bview (tbuf g t) (tmem g).
  Proof.
    intros I (Hh & Hl & Hb & Hs & Hk) Ht.
    assert (Ho: owner c = Some t). { apply I. rewrite <- Hl. exact Ht. }
    unfold owner_view in Hs. destruct (tlock g) as [u|] eqn:E.
    - destruct Hk as [(H1 & H2 & H3)|(H1 & H3 & _)]; [|congruence].
      assert (u = t) by congruence. subst u. auto.
    - congruence.
  Qed.

  (** the last clause of [tsim]: who the interleaving run takes for the owner, given the mutex word and its holder's buffer *)
  Definition owner_clause (lk : option nat) (loc : nat -> L) (buf : nat -> list (@bentry V)) (o : option nat) : Prop :=
    match lk with
    | None => o = None
    | Some u =>
        (holds (loc u) = true /\ existsb is_unlock (buf u) = false /\ o = Some u) \/
        (holds (loc u) = false /\ o = None /\ exists ws, buf u = ws ++ [BUnlock] /\ existsb is_unlock ws = false)
    end.

  Lemma owner_clause_upd (g : @tst V L R) t l' (o : option nat) :
    holds l' = holds (tloc g t) ->
    owner_clause (tlock g) (tloc g) (tbuf g) o -> owner_clause (tlock g) (upd (tloc g) t l') (tbuf g) o.
  Proof.
    unfold owner_clause. intros Hh Hk. destruct (tlock g) as [u|]; [|exact Hk].
    destruct (Nat.eq_dec u t) as [->|Hne].
    - rewrite upd_same, Hh. exact Hk.
    - rewrite upd_other by exact Hne. exact Hk.
  Qed.

  Lemma tsim_step lr (g g1 : @tst V L R) c :
    lockinv holds c -> tsim holds g c -> tstep code lr g g1 ->
    exists c1, (c1 = c \/ cstep sc c c1) /\ tsim holds g1 c1.
  Proof.
    intros I Hsim Hstep. pose proof Hsim as (Hh & Hl & Hb & Hs & Hk).
    destruct D as [Dacq Drel Dload Dstore Dlocal Ddone].
    inversion Hstep as [g0 t l' Hc Hlk Hbt|g0 t l' Hlr Hc Hbt|g0 t l' Hlr Hc|g0 t a k Hc|g0 t a v l' Hc|g0 t l' Hc|g0 t r l' Hc
                        |g0 t a v rest Hbt|g0 t rest Hbt]; subst g0; subst.
    - (* Acquire *)
      destruct (Dacq _ _ Hc) as [H1 H2]. rewrite Hlk in Hk.
      exists {| sh := sh c; owner := Some t; loc := upd (loc c) t l'; hist := hist c |}. split.
      + right. apply CAcq; [|exact Hk]. rewrite <- Hl. unfold sc_code. rewrite Hc. reflexivity.
      + unfold tsim, owner_view. cbn [thist tloc tbuf tlock tmem hist loc sh owner].
        split; [exact Hh|]. split; [apply loc_upd; exact Hl|]. split.
        { intros u Hu. apply Hb in Hu. congruence. }
        split.
        { rewrite Hbt. cbn. rewrite Hs. unfold owner_view. rewrite Hlk. reflexivity. }
        left. rewrite upd_same, Hbt. auto.
    - (* locked Release *)
      destruct (Drel _ _ Hc) as [H1 H2].
      destruct (holder_is_owner _ _ _ I Hsim H1) as (Ht & Hnu & Ho & Hv).
      exists {| sh := sh c; owner := None; loc := upd (loc c) t l'; hist := hist c |}. split.
      + right. apply CRel. rewrite <- Hl. unfold sc_code. rewrite Hc. reflexivity.
      + unfold tsim, owner_view. cbn [thist tloc tbuf tlock tmem hist loc sh owner].
        split; [exact Hh|]. split; [apply loc_upd; exact Hl|]. split.
        { intros u Hu. exfalso. pose proof (Hb _ Hu) as E. rewrite Ht in E. injection E as <-. contradiction. }
        split; [|reflexivity]. rewrite Hv, Hbt. reflexivity.
    - (* plain Release: the store of "free" is buffered *)
      destruct (Drel _ _ Hc) as [H1 H2].
      destruct (holder_is_owner _ _ _ I Hsim H1) as (Ht & Hnu & Ho & Hv).
      exists {| sh := sh c; owner := None; loc := upd (loc c) t l'; hist := hist c |}. split.
      + right. apply CRel. rewrite <- Hl. unfold sc_code. rewrite Hc. reflexivity.
      + unfold tsim, owner_view. cbn [thist tloc tbuf tlock tmem hist loc sh owner].
        split; [exact Hh|]. split; [apply loc_upd; exact Hl|]. split.
        { intros u Hu. destruct (Nat.eq_dec u t) as [->|Hne]; [exact Ht|]. rewrite bupd_other in Hu by exact Hne. auto. }
        rewrite Ht, bupd_same, upd_same. split.
        { rewrite bview_app_u. exact Hv. }
        right. repeat split; auto. exists (tbuf g t). auto.
    - (* Load *)
      destruct (Dload _ _ _ Hc) as [H1 H2].
      destruct (holder_is_owner _ _ _ I Hsim H1) as (Ht & Hnu & Ho & Hv).
      exists {| sh := fst ((fun m : mem => (m, k (m a))) (sh c)); owner := owner c;
                loc := upd (loc c) t (snd ((fun m : mem => (m, k (m a))) (sh c))); hist := hist c |}. split.
      + right. apply (CShared sc c t (fun m : mem => (m, k (m a)))). rewrite <- Hl. unfold sc_code. rewrite Hc. reflexivity.
      + unfold tsim, owner_view. cbn [thist tloc tbuf tlock tmem hist loc sh owner fst snd].
        split; [exact Hh|]. split.
        { rewrite Hv. apply loc_upd. exact Hl. }
        split; [exact Hb|]. rewrite Ht. split; [exact Hv|].
        left. rewrite upd_same. auto.
    - (* Store *)
      destruct (Dstore _ _ _ _ Hc) as [H1 H2].
      destruct (holder_is_owner _ _ _ I Hsim H1) as (Ht & Hnu & Ho & Hv).
      exists {| sh := fst ((fun m : mem => (mupd m a v, l')) (sh c)); owner := owner c;
                loc := upd (loc c) t (snd ((fun m : mem => (mupd m a v, l')) (sh c))); hist := hist c |}. split.
      + right. apply (CShared sc c t (fun m : mem => (mupd m a v, l'))). rewrite <- Hl. unfold sc_code. rewrite Hc. reflexivity.
      + unfold tsim, owner_view. cbn [thist tloc tbuf tlock tmem hist loc sh owner fst snd].
        split; [exact Hh|]. split; [apply loc_upd; exact Hl|]. split.
        { intros u Hu. destruct (Nat.eq_dec u t) as [->|Hne]; [exact Ht|]. rewrite bupd_other in Hu by exact Hne. auto. }
        rewrite Ht, bupd_same, upd_same. split.
        { rewrite bview_app_w, Hv. reflexivity. }
        left. repeat split; auto. rewrite existsb_app, Hnu. reflexivity.
    - (* Local *)
      pose proof (Dlocal _ _ Hc) as H1.
      exists {| sh := sh c; owner := owner c; loc := upd (loc c) t l'; hist := hist c |}. split.
      + right. apply CLocal. rewrite <- Hl. unfold sc_code. rewrite Hc. reflexivity.
      + unfold tsim, owner_view. cbn [thist tloc tbuf tlock tmem hist loc sh owner].
        split; [exact Hh|]. split; [apply loc_upd; exact Hl|]. split; [exact Hb|]. split; [exact Hs|].
        apply owner_clause_upd; assumption.
    - (* a call completes *)
      destruct (Ddone _ _ _ Hc) as [H1 H2].
      exists {| sh := sh c; owner := owner c; loc := upd (loc c) t l'; hist := hist c ++ [(t, r)] |}. split.
      + right. apply CDone. rewrite <- Hl. unfold sc_code. rewrite Hc. reflexivity.
      + unfold tsim, owner_view. cbn [thist tloc tbuf tlock tmem hist loc sh owner].
        split; [rewrite Hh; reflexivity|]. split; [apply loc_upd; exact Hl|]. split; [exact Hb|]. split; [exact Hs|].
        apply owner_clause_upd; [congruence|assumption].
    - (* a buffered store reaches memory: no step of the interleaving run *)
      exists c. split; [left; reflexivity|].
      assert (Ht: tlock g = Some t) by (apply Hb; rewrite Hbt; discriminate).
      unfold tsim, owner_view. cbn [thist tloc tbuf tlock tmem].
      split; [exact Hh|]. split; [exact Hl|]. split.
      { intros u Hu. destruct (Nat.eq_dec u t) as [->|Hne]; [exact Ht|]. rewrite bupd_other in Hu by exact Hne. auto. }
      rewrite Ht in *. rewrite bupd_same. split.
      { rewrite Hs. unfold owner_view. rewrite Ht, Hbt. reflexivity. }
      rewrite Hbt in Hk. destruct Hk as [(H1 & H2 & H3)|(H1 & H3 & ws & Hws & Hnu)].
      + left. cbn in H2. auto.
      + right. repeat split; auto. destruct ws as [|e ws]; [discriminate|].
        cbn in Hws. injection Hws as <- ->. cbn in Hnu. exists ws. auto.
    - (* the releasing store reaches memory: the mutex word becomes free *)
      exists c. split; [left; reflexivity|].
      assert (Ht: tlock g = Some t) by (apply Hb; rewrite Hbt; discriminate).
      rewrite Ht, Hbt in Hk.
      destruct Hk as [(H1 & H2 & H3)|(H1 & H3 & ws & Hws & Hnu)]; [cbn in H2; discriminate|].
      assert (Hrest: rest = []).
      { destruct ws as [|e ws]; cbn in Hws; [injection Hws as <-; reflexivity|].
        injection Hws as <- _. cbn in Hnu. discriminate. }
      subst rest.
      unfold tsim, owner_view. cbn [thist tloc tbuf tlock tmem].
      split; [exact Hh|]. split; [exact Hl|]. split.
      { intros u Hu. exfalso. destruct (Nat.eq_dec u t) as [->|Hne].
        - rewrite bupd_same in Hu. contradiction.
        - rewrite bupd_other in Hu by exact Hne. apply Hb in Hu. congruence. }
      split; [|exact H3]. rewrite Hs. unfold owner_view. rewrite Ht, Hbt. reflexivity.
  Qed.

  Lemma tinitial_sim (g : @tst V L R) : tinitial holds g -> tsim holds g (sc_of g) /\ initial holds (sc_of g).
  Proof.
    intros (Hk & Hh & Hb). split.
    - unfold tsim, owner_view, sc_of. cbn. rewrite Hk. repeat split; auto.
      intros u Hu. rewrite Hb in Hu. contradiction.
    - split; [exact Hk|exact Hh].
  Qed.

  (** Every TSO run of a disciplined program is matched by a run under interleaving semantics. *)
  Theorem tso_refines_interleaving lr (g0 g : @tst V L R) :
    tinitial holds g0 -> tstar code lr g0 g ->
    exists c, star (cstep sc) (sc_of g0) c /\ lockinv holds c /\ tsim holds g c.
  Proof.
    intros Hi Hs. induction Hs as [g|g1 g2 g3 Hs IH Hstep].
    - destruct (tinitial_sim _ Hi) as [H1 H2]. exists (sc_of g). split; [apply star_refl|].
      split; [apply (initial_lockinv holds); exact H2|exact H1].
    - destruct (IH Hi) as (c & Hc & I & Hsim).
      destruct (tsim_step _ _ _ _ I Hsim Hstep) as (c1 & [-> | Hcs] & Hsim1).
      + exists c. auto.
      + exists c1. split; [eapply star_step; eauto|]. split; [|exact Hsim1].
        eapply (lockinv_step sc holds sc_disciplined); eauto.
  Qed.

  (** ... and hence by a SERIAL execution of its critical sections (composition with [serializable]). *)
  Theorem tso_serializable lr (g0 g : @tst V L R) :
    tinitial holds g0 -> tstar code lr g0 g ->
    exists c s', star (cstep sc) (sc_of g0) c /\ tsim holds g c /\
                 star (sstep sc holds) (sc_of g0) s' /\ sim sc c s'.
  Proof.
    intros Hi Hs. destruct (tso_refines_interleaving _ _ _ Hi Hs) as (c & Hc & I & Hsim).
    destruct (tinitial_sim _ Hi) as [_ Hi'].
    destruct (serializable sc holds sc_disciplined _ _ Hi' Hc) as (_ & s' & Hs' & Hss).
    exists c, s'. auto.
  Qed.

  (** Once the mutex word is free in memory (then every store buffer is empty): memory, the local
      states and the results in their order are those of the serial execution. *)
  Theorem tso_serializable_quiescent lr (g0 g : @tst V L R) :
    tinitial holds g0 -> tstar code lr g0 g -> tlock g = None ->
    (forall u, tbuf g u = []) /\
    exists s', star (sstep sc holds) (sc_of g0) s' /\ thist g = hist s' /\ tmem g = sh s' /\
               forall u, tloc g u = loc s' u.
  Proof.
    intros Hi Hs Hk. destruct (tso_serializable _ _ _ Hi Hs) as (c & s' & Hc & (Hh & Hl & Hb & Hv & Ho) & Hs' & (Hh' & _ & Hm)).
    split.
    { intros u. destruct (tbuf g u) eqn:E; [reflexivity|]. exfalso.
      assert (tlock g = Some u) by (apply Hb; rewrite E; discriminate). congruence. }
    rewrite Hk in Ho. rewrite Ho in Hm. destruct Hm as [H1 H2].
    exists s'. split; [exact Hs'|]. split; [congruence|]. split.
    - unfold owner_view in Hv. rewrite Hk in Hv. congruence.
    - intros u. rewrite Hl. apply H2.
  Qed.

  (** at most one task is inside a critical section, under TSO too *)
  Theorem tso_one_inside lr (g0 g : @tst V L R) t u :
    tinitial holds g0 -> tstar code lr g0 g -> holds (tloc g t) = true -> holds (tloc g u) = true -> t = u.
  Proof.
    intros Hi Hs Ht Hu. destruct (tso_refines_interleaving _ _ _ Hi Hs) as (c & _ & I & Hsim).
    destruct (holder_is_owner _ _ _ I Hsim Ht) as (H1 & _). destruct (holder_is_owner _ _ _ I Hsim Hu) as (H2 & _).
    congruence.
  Qed.
End Proofs.
