(** GetBootCmdLine on an encoded block: the key/value map of the first command-line tag. *)
From Coq Require Import NArith ZArith List Bool Lia Arith.
From Coq Require Import ZifyBool ZifyN ZifyNat.
From FF Require Import Lib.Word Gen.Consts_multiboot Multiboot.Model Multiboot.Spec Multiboot.MemLemmas Multiboot.FindProofs.
Import ListNotations.
Local Open Scope N_scope.

(** ASCII characters that are not white space *)
Definition nospace (w : text) : Prop := Forall (fun c => is_space c = false /\ c < 128) w.
Definition noeq (w : text) : Prop := Forall (fun c => c <> 61) w.

(** ---- white-space runes ---- *)
Lemma find_all_false {A : Type} (f : A -> bool) l : Forall (fun x => f x = false) l -> find f l = None.
Proof. induction 1 as [|x l Hx Hl IH]; [reflexivity|]. cbn [find]. rewrite Hx. exact IH. Qed.

Lemma space_width_ascii c r : c < 128 -> space_width (c :: r) = if is_space c then 1%nat else 0%nat.
Proof.
  intros Hc. unfold space_width. destruct (is_space c); [reflexivity|].
  rewrite find_all_false; [reflexivity|].
  unfold unicode_spaces. repeat constructor; cbn [has_prefix];
    match goal with |- (?k =? c) && _ = false => replace (k =? c) with false by lia; reflexivity end.
Qed.

Lemma space_unit_nonempty u : space_unit u -> u <> [].
Proof.
  intros [[c [-> _]]|Hin]; [discriminate|]. unfold unicode_spaces in Hin.
  repeat (destruct Hin as [<-|Hin]; [discriminate|]). destruct Hin.
Qed.

(** a white-space rune ends the current field *)
Lemma fields_unit u r cur : space_unit u ->
  fields_loop (u ++ r) cur 0 =
    (match cur with Some w => [rev w] | None => [] end) ++ fields_loop r None 0.
Proof.
  intros [[c [-> Hc]]|Hin].
  - cbn [app fields_loop space_width]. rewrite Hc. destruct cur; reflexivity.
  - unfold unicode_spaces in Hin.
    repeat (destruct Hin as [<-|Hin]; [destruct cur; reflexivity|]). destruct Hin.
Qed.

(** ---- strings.Fields ---- *)
Lemma fields_spaces ws r : spaces ws -> fields_loop (ws ++ r) None 0 = fields_loop r None 0.
Proof.
  intros [us [-> Hus]]. induction Hus as [|u us Hu Hus IH]; [reflexivity|].
  cbn [concat]. rewrite <- app_assoc. rewrite (fields_unit u _ None Hu). exact IH.
Qed.

Lemma fields_word_acc w : forall acc r, nospace w ->
  fields_loop (w ++ r) (Some acc) 0 = fields_loop r (Some (rev w ++ acc)) 0.
Proof.
  induction w as [|c w IH]; intros acc r Hw; [reflexivity|].
  inversion Hw as [|? ? [Hc Hc128] Hw']; subst. cbn [app fields_loop].
  rewrite (space_width_ascii c _ Hc128), Hc.
  rewrite IH by exact Hw'. cbn [rev]. rewrite <- app_assoc. reflexivity.
Qed.

Lemma fields_word w r : nospace w -> w <> [] ->
  fields_loop (w ++ r) None 0 = fields_loop r (Some (rev w)) 0.
Proof.
  intros Hw Hne. destruct w as [|c w]; [contradiction|].
  inversion Hw as [|? ? [Hc Hc128] Hw']; subst. cbn [app fields_loop].
  rewrite (space_width_ascii c _ Hc128), Hc.
  rewrite fields_word_acc by exact Hw'. reflexivity.
Qed.

Lemma fields_token_ws w ws r : nospace w -> w <> [] -> spaces ws -> ws <> [] ->
  fields_loop (w ++ ws ++ r) None 0 = w :: fields_loop r None 0.
Proof.
  intros Hw Hne [us [-> Hus]] Hwsne. rewrite fields_word by assumption.
  destruct us as [|u us]; [contradiction Hwsne; reflexivity|].
  cbn [concat]. rewrite <- app_assoc.
  rewrite (fields_unit u _ _ (Forall_inv Hus)). rewrite rev_involutive. cbn [app]. apply f_equal.
  apply fields_spaces. exists us. split; [reflexivity | apply (Forall_inv_tail Hus)].
Qed.

Lemma fields_token_last w ws : nospace w -> w <> [] -> spaces ws ->
  fields_loop (w ++ ws) None 0 = [w].
Proof.
  intros Hw Hne Hws. destruct ws as [|s ws].
  - rewrite fields_word by assumption. cbn [fields_loop]. rewrite rev_involutive. reflexivity.
  - rewrite <- (app_nil_r (s :: ws)). rewrite fields_token_ws; try assumption; [reflexivity | discriminate].
Qed.

(** ---- strings.Split(s, "=") ---- *)
Lemma split_noeq w : forall cur r, noeq w -> split_eq_loop (w ++ r) cur = split_eq_loop r (rev w ++ cur).
Proof.
  induction w as [|c w IH]; intros cur r Hw; [reflexivity|].
  inversion Hw as [|? ? Hc Hw']; subst. cbn [app split_eq_loop].
  replace (c =? 61) with false by lia. rewrite IH by exact Hw'. cbn [rev]. rewrite <- app_assoc. reflexivity.
Qed.

Lemma split_bare f : noeq f -> split_eq f = [f].
Proof.
  intros H. unfold split_eq. rewrite <- (app_nil_r f) at 1. rewrite split_noeq by exact H.
  cbn [split_eq_loop]. rewrite app_nil_r, rev_involutive. reflexivity.
Qed.

Lemma split_kv k v : noeq k -> noeq v -> split_eq (k ++ 61 :: v) = [k; v].
Proof.
  intros Hk Hv. unfold split_eq. rewrite split_noeq by exact Hk. cbn [split_eq_loop N.eqb Pos.eqb].
  rewrite app_nil_r, rev_involutive. f_equal.
  rewrite <- (app_nil_r v) at 1. rewrite split_noeq by exact Hv. cbn [split_eq_loop].
  rewrite app_nil_r, rev_involutive. reflexivity.
Qed.

(** ---- words ---- *)
Lemma word_nospace w : word w -> nospace w.
Proof. apply Forall_impl. intros c [_ [H128 [H _]]]. split; assumption. Qed.

Lemma word_noeq w : word w -> noeq w.
Proof. apply Forall_impl. intros c [_ [_ [_ H]]]. exact H. Qed.

Lemma token_nospace e : cmd_entry_wf e -> nospace (enc_cmd_entry e) /\ enc_cmd_entry e <> [].
Proof.
  destruct e as [k v|f]; cbn [cmd_entry_wf enc_cmd_entry].
  - intros [Hk Hv]. split.
    + apply Forall_app. split; [apply word_nospace; exact Hk|]. constructor; [split; reflexivity | apply word_nospace; exact Hv].
    + destruct k; discriminate.
  - intros [Hf Hne]. split; [apply word_nospace; exact Hf | exact Hne].
Qed.

Lemma add_pair_token al e : cmd_entry_wf e ->
  add_pair al (enc_cmd_entry e) = assign (fst (entry_pair e)) (snd (entry_pair e)) al.
Proof.
  destruct e as [k v|f]; cbn [cmd_entry_wf enc_cmd_entry entry_pair fst snd]; unfold add_pair.
  - intros [Hk Hv]. rewrite split_kv by (apply word_noeq; assumption). reflexivity.
  - intros [Hf _]. rewrite split_bare by (apply word_noeq; assumption). reflexivity.
Qed.

Lemma fields_entries es : entries_wf es ->
  fields_loop (flat_map (fun p => enc_cmd_entry (fst p) ++ snd p) es) None 0 = map (fun p => enc_cmd_entry (fst p)) es.
Proof.
  induction es as [|[e ws] es IH]; [reflexivity|].
  cbn [entries_wf]. intros [He [Hws [Hne Hes]]].
  destruct (token_nospace e He) as [Hns Htne].
  cbn [flat_map map fst snd].
  destruct es as [|p es'].
  - cbn [flat_map map]. rewrite app_nil_r. apply fields_token_last; assumption.
  - rewrite <- app_assoc. rewrite fields_token_ws; try assumption; [|apply Hne; discriminate].
    f_equal. apply IH. exact Hes.
Qed.

Lemma entries_wf_forall es : entries_wf es -> Forall (fun p => cmd_entry_wf (fst p)) es.
Proof.
  induction es as [|[e ws] es IH]; [constructor|]. cbn [entries_wf]. intros [He [_ [_ Hes]]].
  constructor; [exact He | apply IH; exact Hes].
Qed.

Lemma parse_cmd_text c : cmdline_wf c ->
  parse_cmdline (cmd_text c) =
    fold_left (fun al e => assign (fst (entry_pair (fst e))) (snd (entry_pair (fst e))) al) (c_entries c) [].
Proof.
  intros [Hlead Hes]. unfold parse_cmdline, fields, cmd_text.
  rewrite fields_spaces by exact Hlead. rewrite fields_entries by exact Hes.
  pose proof (entries_wf_forall _ Hes) as Hall. clear Hes.
  generalize (@nil (text * text)). induction Hall as [|p es Hp Hall IH]; intros al; [reflexivity|].
  cbn [map fold_left]. rewrite add_pair_token by exact Hp. apply IH.
Qed.

Lemma sub32_1 n : n < two32 - 1 -> sub32 (n + 1) 1 = n.
Proof.
  intros H. unfold sub32. rewrite (w32_small 1) by (rewrite two32_val; lia).
  unfold w32. rewrite two32_val in *. lia.
Qed.

(** GetBootCmdLine on an encoded well-formed block *)
Lemma get_boot_cmdline_encode (l : layout) (mb : mbinfo) :
  mbinfo_wf (l_saddr l) (l_strtab l) mb -> layout_wf l (encode mb) ->
  get_boot_cmdline (mem_of l (encode mb)) (l_info l) = Ok (expected_cmdline mb).
Proof.
  intros Hwf Hlw. pose proof (layout_wf_ok _ _ Hlw) as Hlay.
  unfold get_boot_cmdline.
  pose proof (find_first_tag sel_cmd mb_tagBootCmdLine l mb Hwf Hlw ltac:(discriminate) (sel_cmd_type _ _)) as Hfirst.
  destruct Hwf as [Hr [Hts Hsm]].
  unfold expected_cmdline.
  destruct (first_tag sel_cmd (mb_tags mb)) as [c|].
  - destruct Hfirst as (o' & t & -> & Hsel & Hsub & Htw).
    destruct t; try discriminate. cbn [sel_cmd] in Hsel. injection Hsel as ->.
    cbn [tag_wf payload] in *. cbn [bind].
    assert (Hb := sub_at_bound _ _ _ Hsub). rewrite len_app in Hb. change (len [0]) with 1 in Hb.
    rewrite len_app. change (len [0]) with 1.
    replace (len (cmd_text c) + 1 =? 0) with false by lia.
    rewrite sub32_1 by (rewrite two32_val; lia).
    rewrite <- (parse_cmd_text c Htw).
    destruct (len (cmd_text c) =? 0) eqn:E0.
    + apply N.eqb_eq in E0. destruct (cmd_text c); [reflexivity | rewrite len_cons in E0; lia].
    + rewrite <- N.add_assoc. rewrite (rd_blk l (encode mb) Hlay _ _ (sub_at_app_l _ _ _ _ Hsub)). reflexivity.
  - rewrite Hfirst. reflexivity.
Qed.
