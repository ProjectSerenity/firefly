(** VisitMemRegions on an encoded block: the regions of the first memory-map tag, in order, with
    undefined types reported as reserved, until the visitor returns false; no stray access; the
    entries shown to the visitor are left with their types normalised (Multiboot/AfterVisit.v). *)
From Coq Require Import NArith ZArith List Bool Lia Arith.
From Coq Require Import ZifyBool ZifyN ZifyNat.
From FF Require Import Lib.Word Gen.Consts_multiboot Multiboot.Model Multiboot.Spec Multiboot.MemLemmas Multiboot.FindProofs Multiboot.AfterVisit.
Import ListNotations.
Local Open Scope N_scope.

Lemma norm_type_cases t :
  ((t =? 0) || (mb_memUnknown <=? t) = true /\ norm_type t = mb_MemReserved) \/
  ((t =? 0) || (mb_memUnknown <=? t) = false /\ norm_type t = t).
Proof.
  unfold norm_type, mb_memUnknown, mb_MemAvailable, mb_MemReserved, mb_MemAcpiReclaimable, mb_MemNvs.
  destruct (N.eqb_spec t 1), (N.eqb_spec t 2), (N.eqb_spec t 3), (N.eqb_spec t 4); cbn [orb]; lia.
Qed.

Lemma norm_type_lt t : t < two32 -> norm_type t < two32.
Proof.
  intros H. destruct (norm_type_cases t) as [[_ ->]|[_ ->]]; [reflexivity | exact H].
Qed.

Lemma len_enc_entry esz e : entry_wf esz e -> len (enc_entry e) = esz.
Proof.
  intros [_ [_ [_ [_ H]]]]. unfold enc_entry. rewrite !len_app, !len_le64, len_le32. lia.
Qed.

Lemma len_flat_entries esz es : Forall (entry_wf esz) es -> len (flat_map enc_entry es) = N.of_nat (length es) * esz.
Proof.
  induction 1 as [|e es He Hes IH]; [reflexivity|].
  cbn [flat_map length]. rewrite len_app, IH, (len_enc_entry _ _ He). lia.
Qed.

Lemma len_enc_norm e : len (enc_entry (norm_entry e)) = len (enc_entry e).
Proof. unfold enc_entry, norm_entry. cbn [e_addr e_len e_type e_tail]. rewrite !len_app, !len_le64, !len_le32. reflexivity. Qed.

Lemma len_flat_norm cont es : forall idx,
  len (flat_map enc_entry (norm_visited cont idx es)) = len (flat_map enc_entry es).
Proof.
  induction es as [|e es IH]; intros idx; [reflexivity|].
  cbn [norm_visited flat_map]. rewrite !len_app, len_enc_norm.
  destruct (cont idx (region_of e)); [rewrite IH|]; reflexivity.
Qed.

Lemma entry_fields b o a ln t tail : sub_at b o (le64 a ++ le64 ln ++ le32 t ++ tail) ->
  sub_at b o (le64 a) /\ sub_at b (o + 8) (le64 ln) /\ sub_at b (o + 16) (le32 t).
Proof.
  intros H. destruct (sub_at_fld _ _ _ _ _ H) as [Ha H1]. destruct (sub_at_fld _ _ _ _ _ H1) as [Hl H2].
  apply sub_at_app_l in H2. repeat split; [exact Ha|exact Hl|].
  replace (o + 16) with (o + N.of_nat 8 + N.of_nat 8) by lia. exact H2.
Qed.

Section Loop.
  Variable l : layout.
  Variable cont : N -> region -> bool.
  Variable esz : N.
  Variable X0 Y : list N.
  Hypothesis Hesz : esz < two32.
  Hypothesis Hesz24 : 24 <= esz.

  Lemma visit_loop_strong es : forall X1 idx fuel cur endp,
    lay_ok l (X0 ++ le32 esz ++ X1 ++ flat_map enc_entry es ++ Y) ->
    Forall (entry_wf esz) es -> (length es < fuel)%nat ->
    cur = l_info l + (len X0 + 4 + len X1) ->
    endp = cur + len (flat_map enc_entry es) ->
    visit_mem_loop fuel cont (mem_of l (X0 ++ le32 esz ++ X1 ++ flat_map enc_entry es ++ Y))
                   (l_info l + len X0) cur endp idx =
      (mem_of l (X0 ++ le32 esz ++ X1 ++ flat_map enc_entry (norm_visited cont idx es) ++ Y),
       visited cont idx (map region_of es), Ok tt).
  Proof.
    induction es as [|e es IH]; intros X1 idx fuel cur endp Hlay Hwf Hfuel Hcur Hendp.
    - destruct fuel as [|fuel]; [cbn in Hfuel; lia|].
      cbn [visit_mem_loop flat_map map visited norm_visited].
      cbn [flat_map] in Hendp. rewrite len_nil, N.add_0_r in Hendp. subst endp. rewrite N.eqb_refl. reflexivity.
    - destruct fuel as [|fuel]; [cbn in Hfuel; lia|].
      pose proof (Forall_inv Hwf) as He. pose proof (Forall_inv_tail Hwf) as Hwf'.
      pose proof (len_enc_entry _ _ He) as Hle.
      destruct He as [Ha [Hl [Ht [Htail Htl]]]].
      set (block := X0 ++ le32 esz ++ X1 ++ flat_map enc_entry (e :: es) ++ Y) in *.
      pose proof (lay_ok_end _ _ Hlay) as Hend.
      (* decomposition of the block around the current entry *)
      set (Xc := X0 ++ le32 esz ++ X1).
      set (rest := flat_map enc_entry es ++ Y).
      assert (Hblock : block = Xc ++ (le64 (e_addr e) ++ le64 (e_len e) ++ le32 (e_type e) ++ e_tail e) ++ rest).
      { unfold block, Xc, rest. cbn [flat_map]. unfold enc_entry. repeat rewrite <- app_assoc. reflexivity. }
      assert (HlenXc : len Xc = len X0 + 4 + len X1) by (unfold Xc; rewrite !len_app, len_le32; lia).
      assert (Hlenblock : len block = len Xc + esz + len rest).
      { rewrite Hblock. rewrite !len_app, !len_le64, len_le32. lia. }
      cbn [visit_mem_loop].
      cbn [flat_map] in Hendp. rewrite len_app, Hle in Hendp.
      replace (cur =? endp) with false by lia.
      (* read the type *)
      unfold mb_off_MemoryMapEntry_Type.
      rewrite padd_small by lia.
      assert (Hsub_e : sub_at block (len Xc) (le64 (e_addr e) ++ le64 (e_len e) ++ le32 (e_type e) ++ e_tail e)).
      { exists Xc, rest. split; [exact Hblock | reflexivity]. }
      destruct (entry_fields _ _ _ _ _ _ Hsub_e) as (_ & _ & Hsub_t).
      replace (cur + 16) with (l_info l + (len Xc + 16)) by lia.
      rewrite (rd_blk32 l block Hlay _ _ Hsub_t Ht).
      (* normalisation: in both cases the memory afterwards holds the entry with the normalised type *)
      set (e' := mkEntry (e_addr e) (e_len e) (norm_type (e_type e)) (e_tail e)).
      set (block1 := Xc ++ (le64 (e_addr e) ++ le64 (e_len e) ++ le32 (norm_type (e_type e)) ++ e_tail e) ++ rest).
      assert (Hlen1 : len block1 = len block).
      { rewrite Hblock. unfold block1. rewrite !len_app, !len_le64, !len_le32. reflexivity. }
      assert (Hm1 : (if (e_type e =? 0) || (mb_memUnknown <=? e_type e)
                     then wr32 (mem_of l block) (l_info l + (len Xc + 16)) mb_MemReserved
                     else Ok (mem_of l block)) = Ok (mem_of l block1)).
      { destruct (norm_type_cases (e_type e)) as [[Hc Hn]|[Hc Hn]]; rewrite Hc.
        - unfold wr32.
          assert (Hb2 : block = (Xc ++ le64 (e_addr e) ++ le64 (e_len e)) ++ le32 (e_type e) ++ (e_tail e ++ rest)).
          { rewrite Hblock. repeat rewrite <- app_assoc. reflexivity. }
          replace (len Xc + 16) with (len (Xc ++ le64 (e_addr e) ++ le64 (e_len e))) by (rewrite !len_app, !len_le64; lia).
          rewrite (wr_blk l block Hlay _ (le32 (e_type e)) (bytes_le 4 mb_MemReserved) _ Hb2) by (unfold le32; rewrite !length_bytes_le; reflexivity).
          f_equal. f_equal. unfold block1. rewrite Hn. unfold le32. repeat rewrite <- app_assoc. reflexivity.
        - unfold block1. rewrite Hn. rewrite <- Hblock. reflexivity. }
      rewrite Hm1.
      assert (Hlay1 : lay_ok l block1) by (apply (lay_ok_len l block); [symmetry; exact Hlen1 | exact Hlay]).
      (* what the visitor reads *)
      assert (Hsub_e1 : sub_at block1 (len Xc) (le64 (e_addr e) ++ le64 (e_len e) ++ le32 (norm_type (e_type e)) ++ e_tail e)).
      { exists Xc, rest. split; reflexivity. }
      assert (Hrr : read_region (mem_of l block1) cur = Ok (region_of e)).
      { unfold read_region, mb_off_MemoryMapEntry_PhysAddress, mb_off_MemoryMapEntry_Length, mb_off_MemoryMapEntry_Type.
        destruct (entry_fields _ _ _ _ _ _ Hsub_e1) as (F0 & F8 & F16).
        rewrite !padd_small by lia. rewrite N.add_0_r.
        replace cur with (l_info l + len Xc) by lia. rewrite <- !N.add_assoc.
        rewrite (rd_blk64 l block1 Hlay1 _ _ F0 Ha), (rd_blk64 l block1 Hlay1 _ _ F8 Hl),
          (rd_blk32 l block1 Hlay1 _ _ F16 (norm_type_lt _ Ht)).
        reflexivity. }
      rewrite Hrr.
      cbn [map visited].
      destruct (cont idx (region_of e)) eqn:Hcont.
      + (* the visitor continues: entry size is re-read from the tag header *)
        unfold mb_off_mmapHeader_entrySize. rewrite padd_small by lia. rewrite N.add_0_r.
        assert (Hsub_h : sub_at block1 (len X0) (le32 esz)).
        { exists X0, (X1 ++ (le64 (e_addr e) ++ le64 (e_len e) ++ le32 (norm_type (e_type e)) ++ e_tail e) ++ rest).
          split; [|reflexivity]. unfold block1, Xc. repeat rewrite <- app_assoc. reflexivity. }
        rewrite (rd_blk32 l block1 Hlay1 _ _ Hsub_h Hesz).
        assert (Hb1 : block1 = X0 ++ le32 esz ++ (X1 ++ enc_entry e') ++ flat_map enc_entry es ++ Y).
        { unfold block1, Xc, rest, enc_entry, e'. cbn [e_addr e_len e_type e_tail]. repeat rewrite <- app_assoc. reflexivity. }
        assert (Hle' : len (enc_entry e') = esz).
        { unfold enc_entry, e'. cbn [e_addr e_len e_type e_tail]. rewrite !len_app, !len_le64, len_le32. lia. }
        rewrite Hb1 in Hlay1.
        pose proof (IH (X1 ++ enc_entry e') (idx + 1) fuel (padd cur esz) endp Hlay1 Hwf') as Hrun.
        rewrite <- Hb1 in Hrun. rewrite Hrun.
        * cbn [norm_visited]. rewrite Hcont. cbn [flat_map]. fold e'. repeat rewrite <- app_assoc. reflexivity.
        * cbn [length] in Hfuel. lia.
        * rewrite padd_small by lia. rewrite len_app, Hle'. lia.
        * rewrite padd_small by lia. lia.
      + cbn [norm_visited]. rewrite Hcont. cbn [flat_map]. fold e'.
        unfold block1, Xc, rest, e', enc_entry. cbn [e_addr e_len e_type e_tail]. repeat rewrite <- app_assoc. reflexivity.
  Qed.

  (** all the later decoders need of the memory left behind: a block of the same length *)
  Lemma visit_loop es : forall X1 idx fuel cur endp,
    lay_ok l (X0 ++ le32 esz ++ X1 ++ flat_map enc_entry es ++ Y) ->
    Forall (entry_wf esz) es -> (length es < fuel)%nat ->
    cur = l_info l + (len X0 + 4 + len X1) ->
    endp = cur + len (flat_map enc_entry es) ->
    exists block',
      len block' = len (X0 ++ le32 esz ++ X1 ++ flat_map enc_entry es ++ Y) /\
      visit_mem_loop fuel cont (mem_of l (X0 ++ le32 esz ++ X1 ++ flat_map enc_entry es ++ Y))
                     (l_info l + len X0) cur endp idx =
        (mem_of l block', visited cont idx (map region_of es), Ok tt).
  Proof.
    intros X1 idx fuel cur endp Hlay Hwf Hfuel Hcur Hendp. eexists. split; [|apply visit_loop_strong; assumption].
    rewrite !len_app, len_flat_norm. reflexivity.
  Qed.
End Loop.

(** VisitMemRegions on an encoded well-formed block *)
Lemma visit_mem_regions_encode (l : layout) (mb : mbinfo) (cont : N -> region -> bool) (fuel : nat) :
  mbinfo_wf (l_saddr l) (l_strtab l) mb -> layout_wf l (encode mb) ->
  (length (expected_regions mb) < fuel)%nat ->
  exists block',
    len block' = len (encode mb) /\
    visit_mem_regions fuel cont (mem_of l (encode mb)) (l_info l) =
      (mem_of l block', visited cont 0 (expected_regions mb), Ok tt).
Proof.
  intros Hwf Hlw Hfuel. pose proof (layout_wf_ok _ _ Hlw) as Hlay.
  unfold visit_mem_regions.
  pose proof (find_first_tag sel_memmap mb_tagMemoryMap l mb Hwf Hlw ltac:(discriminate) (sel_memmap_type _ _)) as Hfirst.
  destruct Hwf as [Hr [Hts Hsm]].
  unfold expected_regions in *.
  destruct (first_tag sel_memmap (mb_tags mb)) as [[[esz ever] es]|].
  - destruct Hfirst as (o' & t & -> & Hsel & Hsub & Htw).
    destruct t; try discriminate. cbn [sel_memmap] in Hsel. injection Hsel as -> -> ->.
    cbn [tag_wf] in Htw. destruct Htw as [H24 [Hesz [Hever Hes]]].
    cbn [payload] in *.
    assert (Hb := sub_at_bound _ _ _ Hsub). rewrite !len_app, !len_le32 in Hb.
    pose proof (lay_ok_end _ _ Hlay) as Hend.
    replace (len (le32 esz ++ le32 ever ++ flat_map enc_entry es) =? 0) with false
      by (rewrite !len_app, !len_le32; lia).
    destruct Hsub as [X [Y [Hblock HX]]].
    assert (Hblock' : encode mb = X ++ le32 esz ++ le32 ever ++ flat_map enc_entry es ++ Y).
    { rewrite Hblock. repeat rewrite <- app_assoc. reflexivity. }
    rewrite Hblock' in Hlay.
    destruct (visit_loop l cont esz X Y Hesz H24 es (le32 ever) 0 fuel
                (padd (l_info l + o' + 8) mb_sizeof_mmapHeader)
                (padd (l_info l + o' + 8) (len (le32 esz ++ le32 ever ++ flat_map enc_entry es)))
                Hlay Hes) as [block' [Hlen Hrun]].
    + rewrite map_length in Hfuel. exact Hfuel.
    + unfold mb_sizeof_mmapHeader. rewrite padd_small by lia. rewrite len_le32. lia.
    + unfold mb_sizeof_mmapHeader. rewrite !padd_small by (rewrite ?len_app, ?len_le32; lia).
      rewrite !len_app, !len_le32. lia.
    + rewrite <- Hblock' in Hrun, Hlen. replace (l_info l + len X) with (l_info l + o' + 8) in Hrun by lia.
      exists block'. split; [exact Hlen | exact Hrun].
  - rewrite Hfirst. cbn [N.eqb]. exists (encode mb). split; reflexivity.
Qed.
