(** findTagByType on an encoded block: finds the first tag of the wanted type, no stray read. *)
From Coq Require Import NArith ZArith List Bool Lia Arith.
From Coq Require Import ZifyBool ZifyN ZifyNat.
From FF Require Import Lib.Word Gen.Consts_multiboot Multiboot.Model Multiboot.Spec Multiboot.MemLemmas.
Import ListNotations.
Local Open Scope N_scope.

Definition tag_span (tp : tag * list N) : N := 8 + len (payload (fst tp)) + len (snd tp).

(** offset (from the start of the block) and content of the first tag of type [ty] *)
Fixpoint locate (ty : N) (ts : list (tag * list N)) (o : N) : option (N * tag) :=
  match ts with
  | [] => None
  | tp :: r => if tag_type (fst tp) =? ty then Some (o, fst tp) else locate ty r (o + tag_span tp)
  end.

Lemma len_enc_tag tp : len (enc_tag tp) = tag_span tp.
Proof. unfold enc_tag, tag_span. rewrite !len_app, !len_le32. lia. Qed.

Lemma tag_fields b o tp rest : sub_at b o (enc_tag tp ++ rest) ->
  sub_at b o (le32 (tag_type (fst tp))) /\ sub_at b (o + 4) (le32 (8 + len (payload (fst tp)))) /\
  sub_at b (o + 8) (payload (fst tp)) /\ sub_at b (o + tag_span tp) rest.
Proof.
  intros H. pose proof (sub_at_app_l _ _ _ _ H) as Ht. unfold enc_tag in Ht.
  destruct (sub_at_fld _ _ _ _ _ Ht) as [H1 Ht1]. destruct (sub_at_fld _ _ _ _ _ Ht1) as [H2 Ht2].
  apply sub_at_app_l in Ht2. split; [exact H1|]. split; [exact H2|]. split.
  - replace (o + 8) with (o + N.of_nat 4 + N.of_nat 4) by lia. exact Ht2.
  - apply sub_at_app_r in H. rewrite len_enc_tag in H. exact H.
Qed.

Lemma len_end_tag : len end_tag = 8.
Proof. reflexivity. Qed.

Lemma two32_val : two32 = 4294967296. Proof. reflexivity. Qed.
Lemma two64_val : two64 = 18446744073709551616. Proof. reflexivity. Qed.
Lemma two16_val : two16 = 65536. Proof. reflexivity. Qed.

Lemma andnot7 x : andnot x 7 = x - x mod 8.
Proof. change 7 with (2 ^ 3 - 1). rewrite andnot_pow2. reflexivity. Qed.

Lemma tag_step_ok sz padn :
  sz + 7 < 0x80000000 -> padn = pad_len sz -> tag_step sz = sz + padn.
Proof.
  intros Hsz ->. unfold tag_step, sext32, pad_len.
  rewrite w32_small by (rewrite two32_val; lia).
  rewrite andnot7.
  replace (sz + 7 - (sz + 7) mod 8 <? 2147483648) with true by lia.
  lia.
Qed.

Lemma sub32_8 n : n < two32 - 8 -> sub32 (8 + n) 8 = n.
Proof.
  intros H. unfold sub32. rewrite (w32_small 8) by (rewrite two32_val; lia).
  unfold w32. rewrite two32_val in *. lia.
Qed.

Lemma tag_type_ok sa st t : tag_wf sa st t -> tag_type t < two32 /\ tag_type t <> 0.
Proof.
  destruct t; cbn [tag_wf tag_type]; intros H; try (split; [reflexivity | discriminate]).
  destruct H as [H1 [H2 _]]. split; [exact H1 | exact H2].
Qed.

Section Find.
  Variable l : layout.
  Variable block : list N.
  Variable sa : N.
  Variable st : list N.
  Hypothesis Hlay : lay_ok l block.
  Hypothesis Hsmall : len block < 0x80000000.

  Lemma find_loop ts : forall o fuel ty,
    sub_at block o (flat_map enc_tag ts ++ end_tag) ->
    Forall (tagpad_wf sa st) ts -> ty <> 0 -> (length ts < fuel)%nat ->
    find_tag_loop fuel (mem_of l block) (l_info l + o) ty =
      Ok (match locate ty ts o with
          | Some (o', t) => (l_info l + o' + 8, len (payload t))
          | None => (0, 0)
          end).
  Proof.
    pose proof (lay_ok_end _ _ Hlay) as Hend.
    induction ts as [|tp ts IH]; intros o fuel ty Hsub Hwf Hty Hfuel.
    - destruct fuel as [|fuel]; [cbn in Hfuel; lia|].
      cbn [flat_map app] in Hsub. cbn [find_tag_loop locate].
      unfold mb_off_tagHeader_tagType. rewrite padd_small by (apply sub_at_bound in Hsub; rewrite len_end_tag in Hsub; lia).
      rewrite N.add_0_r.
      assert (H0 : sub_at block o (le32 mb_tagMbSectionEnd)) by (apply (sub_at_app_l _ _ _ (le32 8)); exact Hsub).
      rewrite (rd_blk32 l block Hlay o mb_tagMbSectionEnd H0) by reflexivity.
      cbn [bind]. reflexivity.
    - destruct fuel as [|fuel]; [cbn in Hfuel; lia|].
      inversion Hwf as [|? ? Htp Hwf']; subst. destruct Htp as [Ht [Hpb Hpl]].
      destruct (tag_type_ok _ _ _ Ht) as [Htt Htnz].
      cbn [flat_map] in Hsub. rewrite <- app_assoc in Hsub.
      assert (Hb := sub_at_bound _ _ _ Hsub). rewrite len_app, len_enc_tag in Hb. rewrite len_app, len_end_tag in Hb.
      destruct (tag_fields _ _ _ _ Hsub) as (H1 & H2 & _ & Hrest).
      unfold tag_span in Hb.
      cbn [find_tag_loop]. unfold mb_off_tagHeader_tagType, mb_off_tagHeader_size.
      rewrite padd_small by lia. rewrite N.add_0_r.
      rewrite (rd_blk32 l block Hlay o _ H1) by exact Htt.
      cbn [bind]. unfold mb_tagMbSectionEnd.
      destruct (tag_type (fst tp) =? 0) eqn:E0; [apply N.eqb_eq in E0; contradiction|].
      rewrite padd_small by lia. rewrite <- N.add_assoc.
      rewrite (rd_blk32 l block Hlay (o + 4) _ H2) by (rewrite two32_val; lia).
      cbn [bind locate].
      destruct (tag_type (fst tp) =? ty) eqn:Et.
      + rewrite padd_small by lia. rewrite sub32_8 by (rewrite two32_val; lia). reflexivity.
      + rewrite (tag_step_ok _ (len (snd tp))) by (try exact Hpl; lia).
        rewrite padd_small by lia.
        replace (l_info l + o + (8 + len (payload (fst tp)) + len (snd tp))) with (l_info l + (o + tag_span tp)) by (unfold tag_span; lia).
        apply IH; try assumption. cbn [length] in Hfuel. lia.
  Qed.
End Find.

Lemma length_flat_enc ts : (8 * length ts <= length (flat_map enc_tag ts))%nat.
Proof.
  induction ts as [|tp ts IH]; [cbn; lia|].
  cbn [flat_map length]. rewrite app_length. unfold enc_tag at 1. rewrite !app_length.
  unfold le32. rewrite !length_bytes_le. lia.
Qed.

Lemma length_encode mb : (16 + 8 * length (mb_tags mb) <= length (encode mb))%nat.
Proof.
  unfold encode, enc_body. rewrite !app_length. unfold le32. rewrite !length_bytes_le.
  pose proof (length_flat_enc (mb_tags mb)). change (length end_tag) with 8%nat. lia.
Qed.

Lemma sub_at_body mb : sub_at (encode mb) 8 (enc_body mb).
Proof.
  unfold encode. pose proof (sub_at_refl (le32 (8 + len (enc_body mb)) ++ le32 (mb_reserved mb) ++ enc_body mb)) as H.
  apply sub_at_app_r in H. rewrite len_le32 in H. apply sub_at_app_r in H. rewrite len_le32 in H. exact H.
Qed.

(** findTagByType on an encoded well-formed block *)
Lemma find_tag_encode (l : layout) (mb : mbinfo) (ty : N) :
  mbinfo_wf (l_saddr l) (l_strtab l) mb -> layout_wf l (encode mb) -> ty <> 0 ->
  find_tag (mem_of l (encode mb)) (l_info l) ty =
    Ok (match locate ty (mb_tags mb) 8 with
        | Some (o, t) => (l_info l + o + 8, len (payload t))
        | None => (0, 0)
        end).
Proof.
  intros [Hr [Hts Hsm]] Hlw Hty. pose proof (layout_wf_ok _ _ Hlw) as Hlay.
  pose proof (lay_ok_end _ _ Hlay) as Hend.
  unfold find_tag. unfold mb_sizeof_info. rewrite padd_small by (pose proof (length_encode mb); unfold len in Hend; lia).
  apply (find_loop l (encode mb) (l_saddr l) (l_strtab l) Hlay Hsm); try assumption.
  - apply sub_at_body.
  - unfold find_fuel, mem_of, total_len. cbn [fold_right s_data]. rewrite !app_length.
    pose proof (length_encode mb) as H.
    assert ((length (mb_tags mb) + 2 <= (length (l_pre l) + length (encode mb) + (length (l_spre l) + length (l_strtab l) + 0)) / 8)%nat).
    { apply Nat.div_le_lower_bound; lia. }
    lia.
Qed.

(** where the located tag's payload is *)
Lemma locate_sub block sa st ts : forall o ty o' t E,
  sub_at block o (flat_map enc_tag ts ++ E) -> Forall (tagpad_wf sa st) ts ->
  locate ty ts o = Some (o', t) ->
  sub_at block (o' + 8) (payload t) /\ tag_wf sa st t /\ tag_type t = ty.
Proof.
  induction ts as [|tp ts IH]; intros o ty o' t E Hsub Hwf Hloc; [discriminate|].
  cbn [locate] in Hloc. inversion Hwf as [|? ? Htp Hwf']; subst.
  cbn [flat_map] in Hsub. rewrite <- app_assoc in Hsub.
  destruct (tag_fields _ _ _ _ Hsub) as (_ & _ & Hpay & Hrest).
  destruct (tag_type (fst tp) =? ty) eqn:Et.
  - injection Hloc as <- <-. split; [exact Hpay|split; [apply Htp | apply N.eqb_eq; exact Et]].
  - apply (IH (o + tag_span tp) ty o' t E); assumption.
Qed.

(** the located tag is the first one selected by [sel], if [sel] selects exactly the type [ty] *)
Lemma locate_first {A : Type} (sel : tag -> option A) sa st ty ts :
  (forall t, tag_wf sa st t -> (sel t <> None <-> tag_type t = ty)) ->
  Forall (tagpad_wf sa st) ts -> forall o,
  match first_tag sel ts with
  | Some a => exists o' t, locate ty ts o = Some (o', t) /\ sel t = Some a
  | None => locate ty ts o = None
  end.
Proof.
  intros Hsel Hwf. induction Hwf as [|tp ts Htp Hwf IH]; intros o; [reflexivity|].
  destruct tp as [t pad]. cbn [first_tag locate fst].
  destruct Htp as [Ht _]. cbn [fst] in Ht. specialize (Hsel t Ht).
  destruct (sel t) as [a|] eqn:Es.
  - assert (Hty : tag_type t = ty) by (apply Hsel; discriminate).
    rewrite Hty, N.eqb_refl. exists o, t. split; [reflexivity | exact Es].
  - destruct (tag_type t =? ty) eqn:Et.
    + apply N.eqb_eq in Et. apply Hsel in Et. contradiction.
    + apply IH.
Qed.

(** findTagByType on an encoded block hands out the payload of the first tag that [sel] selects *)
Lemma find_first_tag {A : Type} (sel : tag -> option A) (ty : N) (l : layout) (mb : mbinfo) :
  mbinfo_wf (l_saddr l) (l_strtab l) mb -> layout_wf l (encode mb) -> ty <> 0 ->
  (forall t, tag_wf (l_saddr l) (l_strtab l) t -> (sel t <> None <-> tag_type t = ty)) ->
  match first_tag sel (mb_tags mb) with
  | Some a => exists o t,
      find_tag (mem_of l (encode mb)) (l_info l) ty = Ok (l_info l + o + 8, len (payload t)) /\
      sel t = Some a /\ sub_at (encode mb) (o + 8) (payload t) /\ tag_wf (l_saddr l) (l_strtab l) t
  | None => find_tag (mem_of l (encode mb)) (l_info l) ty = Ok (0, 0)
  end.
Proof.
  intros Hwf Hlw Hty Hsel. rewrite (find_tag_encode l mb ty Hwf Hlw Hty). destruct Hwf as [_ [Hts _]].
  pose proof (locate_first sel _ _ ty (mb_tags mb) Hsel Hts 8) as Hfirst.
  destruct (first_tag sel (mb_tags mb)) as [a|]; [|rewrite Hfirst; reflexivity].
  destruct Hfirst as [o [t [Hloc Hs]]]. exists o, t. rewrite Hloc.
  destruct (locate_sub (encode mb) _ _ (mb_tags mb) 8 _ o _ end_tag (sub_at_body mb) Hts Hloc) as [Hsub [Htw _]].
  auto.
Qed.

Lemma sel_memmap_type sa st t : tag_wf sa st t -> (sel_memmap t <> None <-> tag_type t = mb_tagMemoryMap).
Proof.
  destruct t; cbn [tag_wf sel_memmap tag_type]; intros H; split; intros H'; try reflexivity; try discriminate; try contradiction.
  destruct H as [_ [_ [Hd _]]]. rewrite H' in Hd. discriminate.
Qed.

Lemma sel_fb_type sa st t : tag_wf sa st t -> (sel_fb t <> None <-> tag_type t = mb_tagFramebufferInfo).
Proof.
  destruct t; cbn [tag_wf sel_fb tag_type]; intros H; split; intros H'; try reflexivity; try discriminate; try contradiction.
  destruct H as [_ [_ [Hd _]]]. rewrite H' in Hd. discriminate.
Qed.

Lemma sel_cmd_type sa st t : tag_wf sa st t -> (sel_cmd t <> None <-> tag_type t = mb_tagBootCmdLine).
Proof.
  destruct t; cbn [tag_wf sel_cmd tag_type]; intros H; split; intros H'; try reflexivity; try discriminate; try contradiction.
  destruct H as [_ [_ [Hd _]]]. rewrite H' in Hd. discriminate.
Qed.

Lemma sel_elf_type sa st t : tag_wf sa st t -> (sel_elf t <> None <-> tag_type t = mb_tagElfSymbols).
Proof.
  destruct t; cbn [tag_wf sel_elf tag_type]; intros H; split; intros H'; try reflexivity; try discriminate; try contradiction.
  destruct H as [_ [_ [Hd _]]]. rewrite H' in Hd. discriminate.
Qed.
