(** The regenerated decoders (Gen/Trans_multiboot.v) on a well-formed multiboot information block: the
    translation theorems of Multiboot/DecodeTrans.v composed with the decode/encode theorems of C10. *)
From Coq Require Import String NArith List Bool Lia.
From FF Require Import Lib.Word Lib.GoOps Gen.Consts_multiboot Gen.Trans_multiboot Multiboot.Model Multiboot.Spec
  Multiboot.MemLemmas Multiboot.FindProofs Multiboot.FbProofs Multiboot.AfterVisit Multiboot.AfterVisitProofs Multiboot.ElfProofs Multiboot.DecodeTrans Multiboot.DecodeTransElf.
Import ListNotations.
Local Open Scope N_scope.

(** ---- a well-formed block is a list of bytes, so [mem_bytes] holds for its placement ---- *)
Lemma bytes_app a b : bytes a -> bytes b -> bytes (a ++ b).
Proof. exact (byte_list_app a b). Qed.

Lemma bytes_flat_map {A} (f : A -> list N) l : Forall (fun x => bytes (f x)) l -> bytes (flat_map f l).
Proof.
  induction l as [|x l IH]; intros H; [constructor|]. inversion H; subst. cbn [flat_map].
  apply bytes_app; [assumption|apply IH; assumption].
Qed.

Lemma bytes_concat us : Forall bytes us -> bytes (concat us).
Proof.
  induction us as [|u us IH]; intros H; [constructor|]. inversion H; subst. cbn [concat].
  apply bytes_app; [assumption|apply IH; assumption].
Qed.

Ltac bytes_auto := repeat first [apply bytes_app | apply bytes_bytes_le | assumption].

Lemma word_bytes w : word w -> bytes w.
Proof.
  unfold word, bytes. intros H. eapply Forall_impl; [|exact H]. intros c [_ [Hc _]]. cbn beta. lia.
Qed.

Lemma space_unit_bytes u : space_unit u -> bytes u.
Proof.
  intros [[c [-> Hc]]|Hin].
  - constructor; [|constructor]. unfold is_space in Hc.
    repeat (apply orb_prop in Hc; destruct Hc as [Hc|Hc]); apply N.eqb_eq in Hc; subst; reflexivity.
  - unfold unicode_spaces in Hin. cbn [In] in Hin.
    repeat (destruct Hin as [<-|Hin]; [repeat constructor|]). contradiction.
Qed.

Lemma spaces_bytes w : spaces w -> bytes w.
Proof.
  intros [us [-> H]]. apply bytes_concat. eapply Forall_impl; [|exact H]. intros u Hu. apply space_unit_bytes. exact Hu.
Qed.

Lemma cmd_entry_bytes e : cmd_entry_wf e -> bytes (enc_cmd_entry e).
Proof.
  destruct e as [k v|f]; cbn [cmd_entry_wf enc_cmd_entry].
  - intros [Hk Hv]. apply bytes_app; [apply word_bytes; exact Hk|]. constructor; [reflexivity|apply word_bytes; exact Hv].
  - intros [Hf _]. apply word_bytes. exact Hf.
Qed.

Lemma entries_bytes es : entries_wf es -> bytes (flat_map (fun p => enc_cmd_entry (fst p) ++ snd p) es).
Proof.
  induction es as [|[e ws] es IH]; intros H; [constructor|]. cbn [entries_wf] in H. destruct H as [He [Hs [_ Hr]]].
  cbn [flat_map fst snd]. apply bytes_app; [apply bytes_app; [apply cmd_entry_bytes; exact He|apply spaces_bytes; exact Hs]|].
  apply IH. exact Hr.
Qed.

Lemma payload_bytes sa st t : tag_wf sa st t -> bytes (payload t).
Proof.
  destruct t as [esz ever es|f|c|entsize shndx secs|ty p]; cbn [tag_wf payload].
  - intros [_ [_ [_ Hes]]]. unfold le32. bytes_auto. apply bytes_flat_map. eapply Forall_impl; [|exact Hes].
    intros e [_ [_ [_ [Ht _]]]]. unfold enc_entry, le64, le32. bytes_auto.
  - intros [_ [_ [_ [_ [Hb [Ht [_ [Hc _]]]]]]]]. unfold enc_fb, le64, le32, le16. bytes_auto.
    repeat constructor; assumption.
  - intros [Hl He]. unfold cmd_text. bytes_auto; [apply spaces_bytes; exact Hl|apply entries_bytes; exact He|repeat constructor].
  - intros _. unfold le32. bytes_auto. apply bytes_flat_map. apply Forall_forall. intros h _.
    unfold enc_sec, le64, le32. bytes_auto.
  - intros [_ [_ [_ Hp]]]. exact Hp.
Qed.

Lemma encode_bytes sa st mb : mbinfo_wf sa st mb -> bytes (encode mb).
Proof.
  intros [_ [Ht _]]. unfold encode, enc_body, end_tag, le32. bytes_auto. apply bytes_flat_map.
  eapply Forall_impl; [|exact Ht]. intros tp [Hw [Hp _]]. unfold enc_tag, le32. bytes_auto.
  exact (payload_bytes _ _ _ Hw).
Qed.

Lemma mem_of_bytes l b : layout_wf l b -> bytes b -> mem_bytes (mem_of l b).
Proof.
  intros [_ [_ [_ [_ [Hp [Hsp [Hst _]]]]]]] Hb. unfold mem_of, mem_bytes.
  constructor; [|constructor; [|constructor]]; cbn [s_data]; apply bytes_app; assumption.
Qed.

Lemma block_mem_bytes l mb : mbinfo_wf (l_saddr l) (l_strtab l) mb -> layout_wf l (encode mb) -> mem_bytes (mem_of l (encode mb)).
Proof. intros Hwf Hlw. exact (mem_of_bytes _ _ Hlw (encode_bytes _ _ _ Hwf)). Qed.

(** findTagByType on an encoded block: the payload address and size of the first tag of the type *)
Lemma findTag_on_block (l : layout) (mb : mbinfo) (ty : N) (t0 : list gcall) :
  mbinfo_wf (l_saddr l) (l_strtab l) mb -> layout_wf l (encode mb) -> ty <> 0 ->
  go_multiboot_findTagByType mld (find_fuel (mem_of l (encode mb))) (mkw t0 (mem_of l (encode mb))) ty (l_info l) =
    GOk (mkw t0 (mem_of l (encode mb)),
         match locate ty (mb_tags mb) 8 with
         | Some (o, t) => (l_info l + o + 8, len (payload t))
         | None => (0, 0)
         end).
Proof.
  intros Hwf Hlw Hty. pose proof (block_mem_bytes l mb Hwf Hlw) as Hb.
  pose proof (findTag_is_translation (mkw t0 (mem_of l (encode mb))) ty (l_info l) Hb) as E.
  cbn [mkw f_world_mem] in E. rewrite (find_tag_encode l mb ty Hwf Hlw Hty) in E. exact E.
Qed.

(** VisitMemRegions on an encoded block: the visitor is called exactly for the regions of the first memory map,
    in order, types normalised, up to and including the first call answered false; the memory left behind is the
    encoding of [after_visit cont mb]; no panic *)
Lemma visitMemRegions_on_block (l : layout) (mb : mbinfo) (cont : N -> region -> bool) (t0 : list gcall) (fuel : nat) :
  mbinfo_wf (l_saddr l) (l_strtab l) mb -> layout_wf l (encode mb) ->
  (find_fuel (mem_of l (encode mb)) <= fuel)%nat -> (S (length (expected_regions mb)) < fuel)%nat ->
  go_multiboot_VisitMemRegions mld mst fuel (mkw t0 (mem_of l (encode mb))) (l_info l)
      (vis_oracle cont (N.of_nat (length t0))) =
    GOk (mkw (rev (map ev_region (visited cont 0 (expected_regions mb))) ++ t0)
             (mem_of l (encode (after_visit cont mb))), tt).
Proof.
  intros Hwf Hlw Hff Hn. pose proof (block_mem_bytes l mb Hwf Hlw) as Hb.
  pose proof (visit_mem_regions_after l mb cont Hwf Hlw (S (length (expected_regions mb))) (PeanoNat.Nat.lt_succ_diag_r _)) as E.
  rewrite (visit_is_translation fuel (S (length (expected_regions mb))) cont t0 _ _ Hb Hff Hn).
  - rewrite E. reflexivity.
  - rewrite E. discriminate.
  - rewrite E. discriminate.
Qed.

(** VisitElfSections on an encoded block: the visitor is called exactly for the non-empty sections of the first ELF tag,
    in order, each with its NUL-terminated name from the string table, flags (low 32 bits), address and size; no panic *)
Lemma visitElfSections_on_block (l : layout) (mb : mbinfo) (t0 : list gcall) (fuel : nat) :
  mbinfo_wf (l_saddr l) (l_strtab l) mb -> layout_wf l (encode mb) ->
  (find_fuel (mem_of l (encode mb)) <= fuel)%nat -> (S (total_len (mem_of l (encode mb))) <= fuel)%nat -> 65536 <= N.of_nat fuel ->
  go_multiboot_VisitElfSections mld fuel (mkw t0 (mem_of l (encode mb))) (l_info l) =
    GOk (mkw (rev (map ev_section (expected_sections (l_strtab l) mb)) ++ t0) (mem_of l (encode mb)), tt).
Proof.
  intros Hwf Hlw Hff Hfs Hfn. pose proof (block_mem_bytes l mb Hwf Hlw) as Hb.
  pose proof (visit_elf_sections_encode l mb Hwf Hlw) as E.
  rewrite (visitElf_is_translation fuel t0 _ _ Hb Hff Hfs Hfn).
  - rewrite E. reflexivity.
  - rewrite E. discriminate.
  - rewrite E. discriminate.
Qed.
