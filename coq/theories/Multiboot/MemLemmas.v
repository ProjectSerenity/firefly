(** Byte-level lemmas for the C10 proofs: little-endian encoding, sub-lists at offsets,
    reads and writes of the two-segment memory [mem_of]. *)
From Coq Require Import NArith ZArith List Bool Lia Arith.
From Coq Require Import ZifyBool ZifyN ZifyNat.
From FF Require Import Lib.Word Gen.Consts_multiboot Multiboot.Model Multiboot.Spec.
Import ListNotations.
Local Open Scope N_scope.

(** ---- len ---- *)
Lemma len_app (a b : list N) : len (a ++ b) = len a + len b.
Proof. unfold len. rewrite app_length. lia. Qed.

Lemma len_cons (x : N) (a : list N) : len (x :: a) = 1 + len a.
Proof. unfold len. cbn [length]. lia. Qed.

Lemma len_nil : len [] = 0.
Proof. reflexivity. Qed.

Lemma to_nat_len (a : list N) : N.to_nat (len a) = length a.
Proof. unfold len. lia. Qed.

Lemma length_bytes_le n v : length (bytes_le n v) = n.
Proof. revert v. induction n as [|n IH]; intros v; cbn [bytes_le length]; [reflexivity | rewrite IH; reflexivity]. Qed.

Lemma len_bytes_le n v : len (bytes_le n v) = N.of_nat n.
Proof. unfold len. rewrite length_bytes_le. reflexivity. Qed.

Lemma len_le16 v : len (le16 v) = 2. Proof. apply len_bytes_le. Qed.
Lemma len_le32 v : len (le32 v) = 4. Proof. apply len_bytes_le. Qed.
Lemma len_le64 v : len (le64 v) = 8. Proof. apply len_bytes_le. Qed.

Lemma bytes_bytes_le n v : bytes (bytes_le n v).
Proof.
  revert v. induction n as [|n IH]; intros v; cbn [bytes_le]; constructor; [|apply IH].
  apply N.mod_lt. discriminate.
Qed.

(** ---- little endian ---- *)
Lemma le_bytes_le n v : v < 256 ^ N.of_nat n -> le (bytes_le n v) = v.
Proof.
  revert v. induction n as [|n IH]; intros v Hv.
  - cbn in *. lia.
  - cbn [bytes_le le]. rewrite IH.
    + pose proof (N.div_mod v 256). lia.
    + rewrite Nat2N.inj_succ, N.pow_succ_r' in Hv. apply N.div_lt_upper_bound; lia.
Qed.

Lemma le_le16 v : v < two16 -> le (le16 v) = v.
Proof. intros H. apply le_bytes_le. exact H. Qed.
Lemma le_le32 v : v < two32 -> le (le32 v) = v.
Proof. intros H. apply le_bytes_le. exact H. Qed.
Lemma le_le64 v : v < two64 -> le (le64 v) = v.
Proof. intros H. apply le_bytes_le. exact H. Qed.

Lemma le_single b : le [b] = b.
Proof. cbn. lia. Qed.

(** the low half of a 32-bit little-endian value *)
Lemma le32_low16 v : v < two16 -> le32 v = le16 v ++ [0; 0].
Proof.
  intros H. unfold le32, le16. cbn [bytes_le app].
  replace (v / 256 / 256) with 0 by (symmetry; apply N.div_small; apply N.div_lt_upper_bound; [lia | exact H]).
  reflexivity.
Qed.

(** ---- sub-lists at offsets ---- *)
Definition sub_at (b : list N) (o : N) (c : list N) : Prop :=
  exists X Y, b = X ++ c ++ Y /\ len X = o.

Lemma sub_at_refl b : sub_at b 0 b.
Proof. exists [], []. rewrite app_nil_r. split; reflexivity. Qed.

Lemma sub_at_trans b o c o' d : sub_at b o c -> sub_at c o' d -> sub_at b (o + o') d.
Proof.
  intros [X [Y [-> HX]]] [X' [Y' [-> HX']]]. exists (X ++ X'), (Y' ++ Y). split.
  - repeat rewrite <- app_assoc. reflexivity.
  - rewrite len_app. lia.
Qed.

Lemma sub_at_app_l b o xs ys : sub_at b o (xs ++ ys) -> sub_at b o xs.
Proof.
  intros H. replace o with (o + 0) by lia. apply (sub_at_trans _ _ _ _ _ H).
  exists [], ys. split; reflexivity.
Qed.

Lemma sub_at_app_r b o xs ys : sub_at b o (xs ++ ys) -> sub_at b (o + len xs) ys.
Proof.
  intros H. apply (sub_at_trans _ _ _ _ _ H). exists xs, []. rewrite app_nil_r. split; reflexivity.
Qed.

Lemma sub_at_fld b o n v r : sub_at b o (bytes_le n v ++ r) ->
  sub_at b o (bytes_le n v) /\ sub_at b (o + N.of_nat n) r.
Proof.
  intros H. split; [exact (sub_at_app_l _ _ _ _ H)|]. rewrite <- (len_bytes_le n v). exact (sub_at_app_r _ _ _ _ H).
Qed.

Lemma sub_at_bound b o c : sub_at b o c -> o + len c <= len b.
Proof. intros [X [Y [-> HX]]]. repeat rewrite len_app. lia. Qed.

(** ---- slices ---- *)
Lemma slice_app (X c Y : list N) : slice (X ++ c ++ Y) (len X) (len c) = c.
Proof.
  unfold slice. rewrite !to_nat_len.
  rewrite skipn_app, skipn_all, Nat.sub_diag. cbn [skipn app].
  rewrite firstn_app, firstn_all, Nat.sub_diag. cbn [firstn]. apply app_nil_r.
Qed.

Lemma upd_app (X c c' Y : list N) :
  length c = length c' -> upd (X ++ c ++ Y) (len X) c' = X ++ c' ++ Y.
Proof.
  intros Hl. unfold upd. rewrite to_nat_len.
  rewrite firstn_app, firstn_all, Nat.sub_diag. cbn [firstn]. rewrite app_nil_r. f_equal. f_equal.
  rewrite <- Hl. rewrite app_assoc. rewrite <- app_length. rewrite skipn_app, skipn_all, Nat.sub_diag.
  reflexivity.
Qed.

(** ---- memory of a layout ---- *)
(** the arithmetic part of [layout_wf] *)
Definition lay_ok (l : layout) (block : list N) : Prop :=
  len (l_pre l) <= l_info l /\ len (l_spre l) <= l_saddr l /\
  l_info l + len block < two64 /\ l_saddr l + len (l_strtab l) < two64 /\
  (l_info l + len block < l_saddr l - len (l_spre l) \/ l_saddr l + len (l_strtab l) < l_info l - len (l_pre l)).

Lemma layout_wf_ok l block : layout_wf l block -> lay_ok l block.
Proof. unfold layout_wf, lay_ok. tauto. Qed.

Lemma lay_ok_end l block : lay_ok l block -> l_info l + len block < two64.
Proof. intros H. apply H. Qed.

Lemma lay_ok_str_end l block : lay_ok l block -> l_saddr l + len (l_strtab l) < two64.
Proof. intros H. apply H. Qed.

Lemma lay_ok_len l b b' : len b = len b' -> lay_ok l b -> lay_ok l b'.
Proof. unfold lay_ok. intros ->. tauto. Qed.

Section Layout.
  Variable l : layout.
  Variable block : list N.
  Hypothesis Hlay : lay_ok l block.

  Lemma rd_blk o c :
    sub_at block o c -> rd_bytes (mem_of l block) (l_info l + o) (len c) = Some c.
  Proof.
    destruct Hlay as [Hpre [Hspre [Hend [Hsend Hdisj]]]].
    intros [X [Y [Hb HX]]]. unfold mem_of. cbn [rd_bytes].
    unfold in_seg, seg_len. cbn [s_base s_data].
    assert (Hlen : N.of_nat (length (l_pre l ++ block)) = len (l_pre l) + len block) by (apply len_app).
    rewrite Hlen.
    assert (Hbound : o + len c <= len block) by (apply sub_at_bound; exists X, Y; auto).
    replace ((l_info l - len (l_pre l) <=? l_info l + o) && (l_info l + o + len c <=? l_info l - len (l_pre l) + (len (l_pre l) + len block))) with true by lia.
    f_equal. replace (l_info l + o - (l_info l - len (l_pre l))) with (len (l_pre l ++ X)) by (rewrite len_app; lia).
    rewrite Hb. rewrite app_assoc. apply slice_app.
  Qed.

  Lemma rd_blk_val o n v :
    sub_at block o (bytes_le n v) -> v < 256 ^ N.of_nat n ->
    rd (mem_of l block) (l_info l + o) (N.of_nat n) = Ok v.
  Proof.
    intros Hs Hv. unfold rd. rewrite <- (len_bytes_le n v). rewrite (rd_blk _ _ Hs).
    rewrite le_bytes_le by exact Hv. reflexivity.
  Qed.

  Lemma rd_blk16 o v : sub_at block o (le16 v) -> v < two16 -> rd (mem_of l block) (l_info l + o) 2 = Ok v.
  Proof. intros Hs Hv. apply (rd_blk_val o 2 v Hs). exact Hv. Qed.
  Lemma rd_blk32 o v : sub_at block o (le32 v) -> v < two32 -> rd (mem_of l block) (l_info l + o) 4 = Ok v.
  Proof. intros Hs Hv. apply (rd_blk_val o 4 v Hs). exact Hv. Qed.
  Lemma rd_blk64 o v : sub_at block o (le64 v) -> v < two64 -> rd (mem_of l block) (l_info l + o) 8 = Ok v.
  Proof. intros Hs Hv. apply (rd_blk_val o 8 v Hs). exact Hv. Qed.

  Lemma rd_blk_byte o b :
    sub_at block o [b] -> rd (mem_of l block) (l_info l + o) 1 = Ok b.
  Proof.
    intros Hs. unfold rd. change 1 with (len [b]). rewrite (rd_blk _ _ Hs). rewrite le_single. reflexivity.
  Qed.

  (** reads of the string table *)
  Lemma rd_str o c :
    sub_at (l_strtab l) o c -> 0 < len c ->
    rd_bytes (mem_of l block) (l_saddr l + o) (len c) = Some c.
  Proof.
    destruct Hlay as [Hpre [Hspre [Hend [Hsend Hdisj]]]].
    intros [X [Y [Hb HX]]] Hpos. unfold mem_of. cbn [rd_bytes].
    assert (Hbound : o + len c <= len (l_strtab l)) by (apply sub_at_bound; exists X, Y; auto).
    unfold in_seg at 1, seg_len. cbn [s_base s_data].
    assert (Hlen : N.of_nat (length (l_pre l ++ block)) = len (l_pre l) + len block) by (apply len_app).
    rewrite Hlen.
    replace ((l_info l - len (l_pre l) <=? l_saddr l + o) && (l_saddr l + o + len c <=? l_info l - len (l_pre l) + (len (l_pre l) + len block))) with false by lia.
    unfold in_seg, seg_len. cbn [s_base s_data].
    assert (Hlen2 : N.of_nat (length (l_spre l ++ l_strtab l)) = len (l_spre l) + len (l_strtab l)) by (apply len_app).
    rewrite Hlen2.
    replace ((l_saddr l - len (l_spre l) <=? l_saddr l + o) && (l_saddr l + o + len c <=? l_saddr l - len (l_spre l) + (len (l_spre l) + len (l_strtab l)))) with true by lia.
    f_equal. replace (l_saddr l + o - (l_saddr l - len (l_spre l))) with (len (l_spre l ++ X)) by (rewrite len_app; lia).
    rewrite Hb. rewrite app_assoc. apply slice_app.
  Qed.

  Lemma rd_str_byte o b :
    sub_at (l_strtab l) o [b] -> rd (mem_of l block) (l_saddr l + o) 1 = Ok b.
  Proof.
    intros Hs. unfold rd. change 1 with (len [b]). rewrite (rd_str _ _ Hs) by (cbn; lia).
    rewrite le_single. reflexivity.
  Qed.

  (** a store into the block *)
  Lemma wr_blk X c c' Y :
    block = X ++ c ++ Y -> length c = length c' ->
    wr_bytes (mem_of l block) (l_info l + len X) c' =
      Some (mem_of l (X ++ c' ++ Y)).
  Proof.
    destruct Hlay as [Hpre [Hspre [Hend [Hsend Hdisj]]]].
    intros Hb Hl. unfold mem_of. cbn [wr_bytes].
    unfold in_seg, seg_len. cbn [s_base s_data].
    assert (Hlen : N.of_nat (length (l_pre l ++ block)) = len (l_pre l) + len block) by (apply len_app).
    rewrite Hlen.
    assert (Hbound : len X + len c' <= len block).
    { rewrite Hb. repeat rewrite len_app. unfold len. rewrite Hl. lia. }
    fold (len c').
    replace ((l_info l - len (l_pre l) <=? l_info l + len X) && (l_info l + len X + len c' <=? l_info l - len (l_pre l) + (len (l_pre l) + len block))) with true by lia.
    f_equal. f_equal. f_equal.
    replace (l_info l + len X - (l_info l - len (l_pre l))) with (len (l_pre l ++ X)) by (rewrite len_app; lia).
    rewrite Hb. rewrite (app_assoc (l_pre l) X). rewrite upd_app by exact Hl. rewrite <- app_assoc. reflexivity.
  Qed.
End Layout.

(** pointer arithmetic without wrap-around *)
Lemma padd_small p o : p + o < two64 -> padd p o = p + o.
Proof. intros H. unfold padd. apply w64_small. exact H. Qed.
