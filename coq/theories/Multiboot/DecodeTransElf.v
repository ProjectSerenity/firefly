(** VisitElfSections of Multiboot/Model.v is the translation of the Go function (Gen/Trans_multiboot.v). *)
From Coq Require Import String NArith List Bool Lia.
From Coq Require Import ZifyBool ZifyN ZifyNat.
From FF Require Import Lib.Word Lib.GoOps Lib.GoOpsFmt Lib.GoMb Gen.Consts_multiboot Gen.Trans_multiboot Multiboot.Model Multiboot.MemLemmas Multiboot.DecodeTrans.
Import ListNotations.
Local Open Scope N_scope.

Lemma rd_bound m a n v : mem_bytes m -> rd m a n = Ok v -> v < 2 ^ (8 * n).
Proof.
  intros Hm. unfold rd. destruct (rd_bytes m a n) as [l|] eqn:E; [|discriminate]. intros H. injection H as <-.
  destruct (rd_bytes_ok _ _ _ _ Hm E) as [Hb Hl]. pose proof (le_bound l Hb) as Hlt. rewrite Hl, N2Nat.id, pow256 in Hlt. exact Hlt.
Qed.

Lemma gbytes_le_le l : byte_list l -> gbytes_le (length l) (le l) = l.
Proof.
  unfold byte_list. induction l as [|b r IH]; intros H; [reflexivity|]. inversion H; subst.
  cbn [length gbytes_le le]. f_equal.
  - rewrite N.mod_add by discriminate. apply N.mod_small. assumption.
  - rewrite N.div_add by discriminate. rewrite N.div_small by assumption. cbn [N.add]. apply IH. assumption.
Qed.

(** the string presented to the visitor = the model's read of the name *)
Lemma gldbytes_rd m d len : mem_bytes m ->
  gldbytes (mld m) d len = if len =? 0 then Some [] else rd_bytes m d len.
Proof.
  intros Hm. unfold gldbytes. destruct (len =? 0); [reflexivity|].
  rewrite gload_rd by exact Hm. unfold rd. destruct (rd_bytes m d len) as [l|] eqn:E; [|reflexivity].
  destruct (rd_bytes_ok _ _ _ _ Hm E) as [Hb Hl]. rewrite <- Hl. rewrite gbytes_le_le by exact Hb. reflexivity.
Qed.

Lemma name_scan_mono f : forall f' m strhdr e,
  (f <= f')%nat -> name_scan f m strhdr e <> Hang -> name_scan f' m strhdr e = name_scan f m strhdr e.
Proof.
  induction f as [|f IH]; intros f' m strhdr e Hle Hn; [exfalso; apply Hn; reflexivity|].
  destruct f' as [|f']; [lia|]. cbn [name_scan] in *. unfold bind in *.
  destruct (rd m (padd strhdr mb_off_elfSection64_address) 8) as [a| | |]; try reflexivity.
  destruct (rd m (padd a e) 1) as [b| | |]; try reflexivity.
  destruct (b =? 0); [reflexivity|]. apply IH; [lia|exact Hn].
Qed.

(** the loop that looks for the NUL of a section name, abstractly: any step function that does what the Go loop
    condition / post statement do is the model's [name_scan], fuel for fuel *)
Lemma inner_scan_generic {R : Type} (m : mem) (strhdr : N) (w : world)
      (step : world * N -> gres (gctl (world * N) R)) :
  (forall e, step (w, e) =
     match rd m (padd strhdr 16) 8 with
     | Ok a => match rd m (padd a e) 1 with
               | Ok b => if negb (b =? 0) then GOk (GNext (w, w64 (e + 1))) else GOk (GBreak (w, e))
               | _ => GPanic
               end
     | _ => GPanic
     end) ->
  forall F e, gloop F step (w, e) =
    match name_scan F m strhdr e with
    | Ok e' => GOk (inl (w, e'))
    | Stray => GPanic
    | Hang => GFuel
    | Runaway => GPanic
    end.
Proof.
  intros Hs. induction F as [|F IH]; intros e; [reflexivity|].
  cbn [gloop name_scan]. rewrite Hs. unfold bind. change mb_off_elfSection64_address with 16.
  destruct (rd_cases m (padd strhdr 16) 8) as [[a Ea]|Ea]; rewrite Ea; [|reflexivity].
  destruct (rd_cases m (padd a e) 1) as [[b Eb]|Eb]; rewrite Eb; [|reflexivity].
  destruct (b =? 0); cbn [negb]; [reflexivity|]. apply IH.
Qed.

Definition ev_section (s : section) : gcall :=
  GCall "visitor" [GBytes (sec_name s); GNum (sec_flags s); GNum (sec_addr s); GNum (sec_size s)].

Definition elf_conv (t0 : list gcall) (m : mem) (r : list section * outcome unit) : gres (world * unit) :=
  match r with
  | (rs, Ok _) => GOk (mkw (rev (map ev_section rs) ++ t0) m, tt)
  | _ => GPanic
  end.

Lemma visitElf_is_translation (fuel : nat) (t0 : list gcall) (m : mem) (info : N) :
  mem_bytes m -> (find_fuel m <= fuel)%nat -> (S (total_len m) <= fuel)%nat -> 65536 <= N.of_nat fuel ->
  snd (visit_elf_sections m info) <> Hang -> snd (visit_elf_sections m info) <> Runaway ->
  go_multiboot_VisitElfSections mld fuel (mkw t0 m) info = elf_conv t0 m (visit_elf_sections m info).
Proof.
  intros Hm Hff Hfs Hfn HnH HnR. unfold go_multiboot_VisitElfSections, visit_elf_sections in *.
  rewrite findTag_is_translation_fuel by exact Hm. cbn [f_world_mem mkw].
  unfold find_tag in *.
  destruct (find_tag_loop (find_fuel m) m (padd info mb_sizeof_info) mb_tagElfSymbols) as [[cur size]| | |] eqn:Ef.
  4: { exfalso. apply HnR. reflexivity. }
  3: { exfalso. apply HnH. reflexivity. }
  2: { rewrite (find_tag_loop_mono _ fuel _ _ _ Hff) by (rewrite Ef; discriminate). rewrite Ef. reflexivity. }
  rewrite (find_tag_loop_mono _ fuel _ _ _ Hff) by (rewrite Ef; discriminate). rewrite Ef. cbn [find_conv].
  destruct (size =? 0); [reflexivity|].
  cbn [f_world_mem mkw]. rewrite gload_rd by exact Hm. rewrite !gw64_padd.
  change mb_off_elfSections_strtabSectionIndex with 8 in *. change mb_off_elfSections_sectionData with 12 in *.
  change mb_off_elfSections_numSections with 0 in *. change mb_sizeof_elfSection64 with 64 in *.
  destruct (rd_cases m (padd cur 8) 4) as [[idx Ei]|Ei]; rewrite Ei in *; [|reflexivity].
  assert (Hidx : gw 64 idx = idx).
  { apply N.mod_small. pose proof (rd_bound _ _ _ _ Hm Ei) as Hb. change (2 ^ (8 * 4)) with 4294967296 in Hb. change (2 ^ 64) with 18446744073709551616. lia. }
  rewrite Hidx.
  change (gw 64 (padd cur 12)) with (w64 (padd cur 12)). rewrite (w64_small (padd cur 12)) by apply w64_lt.
  change (gw 64 (idx * 64)) with (w64 (idx * 64)).
  set (sec0 := padd cur 12) in *. set (strhdr := padd sec0 (w64 (idx * 64))) in *.
  match goal with |- context [gloop fuel ?s (_, _, _, _, _)] => set (step := s) end.
  destruct (rd_cases m (padd cur 0) 2) as [[num En]|En]; rewrite En in *.
  2: { destruct fuel as [|F]; [lia|]. cbn [gloop]. unfold step at 1. cbn [mkw f_world_mem].
       rewrite gload_rd by exact Hm. rewrite En. reflexivity. }
  assert (Hnum : num < 65536).
  { pose proof (rd_bound _ _ _ _ Hm En) as Hb. change (2 ^ (8 * 2)) with 65536 in Hb. exact Hb. }
  assert (L : forall count F i sec tr d l,
     (count < F)%nat -> i + N.of_nat count = num ->
     snd (visit_elf_loop count m strhdr sec) <> Hang ->
     match gloop (R := (world * unit)%type) F step (mkw tr m, i, d, l, sec) with
     | GPanic => GPanic | GFuel => GFuel
     | GOk (inr r) => GOk r
     | GOk (inl st) => let '(v_world, _, _, _, _) := st in GOk (v_world, tt)
     end = elf_conv tr m (visit_elf_loop count m strhdr sec)).
  { clear HnH HnR. induction count as [|count IH]; intros F i sec tr d l HF Hi HH; (destruct F as [|F]; [lia|]);
      cbn [gloop]; unfold step at 1; cbn [mkw f_world_mem f_world_trace set_f_world_trace]; cbn [visit_elf_loop] in *;
      rewrite gload_rd by exact Hm; rewrite En.
    - replace (i <? num) with false by (symmetry; apply N.ltb_ge; lia). reflexivity.
    - replace (i <? num) with true by (symmetry; apply N.ltb_lt; lia).
      unfold read_section, bind in *. rewrite !gload_rd by exact Hm. rewrite !gw64_padd.
      change mb_off_elfSection64_size with 32 in *. change mb_off_elfSection64_nameIndex with 0 in *.
      change mb_off_elfSection64_flags with 8 in *. change mb_off_elfSection64_address with 16 in *.
      change mb_sizeof_elfSection64 with 64 in *.
      destruct (rd_cases m (padd sec 32) 8) as [[sz Esz]|Esz]; rewrite Esz in *; [|reflexivity].
      destruct (sz =? 0) eqn:Ez.
      + specialize (IH F (gw 16 (i + 1)) (padd sec 64) tr d l).
        rewrite IH; [destruct (visit_elf_loop count m strhdr (padd sec 64)) as [rs o]; reflexivity|lia| |].
        * unfold gw. rewrite N.mod_small by (change (2 ^ 16) with 65536; lia). lia.
        * intro E. apply HH. destruct (visit_elf_loop count m strhdr (padd sec 64)) as [rs o]. exact E.
      + destruct (rd_cases m (padd sec 0) 4) as [[ni Eni]|Eni]; rewrite Eni in *; [|reflexivity].
        assert (Hni : gw 64 ni = ni).
        { apply N.mod_small. pose proof (rd_bound _ _ _ _ Hm Eni) as Hb. change (2 ^ (8 * 4)) with 4294967296 in Hb. change (2 ^ 64) with 18446744073709551616. lia. }
        rewrite !Hni.
        match goal with |- context [gloop fuel ?s (mkw tr m, ni)] => rewrite (inner_scan_generic m strhdr (mkw tr m) s) end.
        2: { intros e. cbn [mkw f_world_mem]. rewrite gload_rd by exact Hm.
             change (padd (padd sec0 (w64 (idx * 64))) 16) with (padd strhdr 16).
             destruct (rd m (padd strhdr 16) 8) as [a| | |] eqn:Ea; try reflexivity.
             assert (Ha : gw 64 a = a).
             { apply N.mod_small. pose proof (rd_bound _ _ _ _ Hm Ea) as Hb. exact Hb. }
             rewrite Ha. rewrite gload_rd by exact Hm. rewrite gw64_padd.
             destruct (rd m (padd a e) 1) as [b| | |]; try reflexivity. }
        assert (HnS : name_scan (S (total_len m)) m strhdr ni <> Hang).
        { intro E. apply HH. rewrite E. reflexivity. }
        rewrite (name_scan_mono _ fuel _ _ _ Hfs HnS).
        destruct (name_scan (S (total_len m)) m strhdr ni) as [e| | |]; try reflexivity; [|exfalso; apply HnS; reflexivity].
        cbn [mkw f_world_mem f_world_trace set_f_world_trace]. rewrite !gload_rd by exact Hm. rewrite Eni.
        change (padd (padd sec0 (w64 (idx * 64))) 16) with (padd strhdr 16).
        destruct (rd_cases m (padd strhdr 16) 8) as [[a Ea]|Ea]; rewrite Ea in *; [|reflexivity].
        assert (Ha : gw 64 a = a).
        { apply N.mod_small. exact (rd_bound _ _ _ _ Hm Ea). }
        rewrite !Ha, !Hni. rewrite gldbytes_rd by exact Hm.
        change (gw 64 (gw 64 (a + ni))) with (w64 (padd a ni)). rewrite (w64_small (padd a ni)) by apply w64_lt.
        change (gw 64 (gsub 64 e ni)) with (w64 (sub64 e ni)). rewrite (w64_small (sub64 e ni)) by apply w64_lt.
        rewrite Esz.
        (* whichever name is presented - [] for an empty one, else the bytes read - the rest of the iteration
           (flags, address, the visitor call, on to the next section) is the same: *)
        assert (T : forall name : list N,
          snd match
              match rd m (padd sec 8) 8 with
              | Ok a0 =>
                  match rd m (padd sec 16) 8 with
                  | Ok a1 => Ok (Some (mkSection name (w32 a0) a1 sz))
                  | Stray => Stray | Hang => Hang | Runaway => Runaway
                  end
              | Stray => Stray | Hang => Hang | Runaway => Runaway
              end
            with
            | Ok o =>
                let '(rs, out) := visit_elf_loop count m strhdr (padd sec 64) in
                (match o with Some s => s :: rs | None => rs end, out)
            | Stray => ([], Stray)
            | Hang => ([], Hang)
            | Runaway => ([], Runaway)
            end <> Hang ->
          match
            match
              match match rd m (padd sec 8) 8 with Ok v => Some v | _ => None end with
              | Some t12 =>
                  match match rd m (padd sec 16) 8 with Ok v => Some v | _ => None end with
                  | Some t13 =>
                      GOk (GNext (set_f_world_trace (mkw tr m)
                                    (GCall "visitor" [GBytes name; GNum (gw 32 t12); GNum (gw 64 t13); GNum sz] :: tr),
                                  gw 16 (i + 1), padd a ni, sub64 e ni, padd sec 64))
                  | None => GPanic
                  end
              | None => GPanic
              end
            with
            | GOk (GNext s') => gloop (R := (world * unit)%type) F step s'
            | GOk (GBreak s') => GOk (inl s')
            | GOk (GRet r) => GOk (inr r)
            | GPanic => GPanic
            | GFuel => GFuel
            end
          with
          | GOk (inl (v_world, _, _, _, _)) => GOk (v_world, tt)
          | GOk (inr r) => GOk r
          | GPanic => GPanic
          | GFuel => GFuel
          end =
          elf_conv tr m
            match
              match rd m (padd sec 8) 8 with
              | Ok a0 =>
                  match rd m (padd sec 16) 8 with
                  | Ok a1 => Ok (Some (mkSection name (w32 a0) a1 sz))
                  | Stray => Stray | Hang => Hang | Runaway => Runaway
                  end
              | Stray => Stray | Hang => Hang | Runaway => Runaway
              end
            with
            | Ok o =>
                let '(rs, out) := visit_elf_loop count m strhdr (padd sec 64) in
                (match o with Some s => s :: rs | None => rs end, out)
            | Stray => ([], Stray)
            | Hang => ([], Hang)
            | Runaway => ([], Runaway)
            end).
        { intros name HH0.
          destruct (rd_cases m (padd sec 8) 8) as [[fl Efl]|Efl]; rewrite Efl in *; [|reflexivity].
          destruct (rd_cases m (padd sec 16) 8) as [[ad Ead]|Ead]; rewrite Ead in *; [|reflexivity].
          assert (Had : gw 64 ad = ad) by (apply N.mod_small; exact (rd_bound _ _ _ _ Hm Ead)).
          rewrite Had. cbn [set_f_world_trace mkw f_world_mem].
          eapply eq_trans;
            [apply (IH F (gw 16 (i + 1)) (padd sec 64)
                       (GCall "visitor" [GBytes name; GNum (gw 32 fl); GNum ad; GNum sz] :: tr) (padd a ni) (sub64 e ni))|].
          - lia.
          - unfold gw. rewrite N.mod_small by (change (2 ^ 16) with 65536; lia). lia.
          - intro E. apply HH0. destruct (visit_elf_loop count m strhdr (padd sec 64)) as [rs o]. exact E.
          - destruct (visit_elf_loop count m strhdr (padd sec 64)) as [rs [u| | |]]; cbn [elf_conv map rev]; try reflexivity.
            rewrite <- app_assoc. reflexivity. }
        destruct (sub64 e ni =? 0); [apply T; exact HH|].
        destruct (rd_bytes m (padd a ni) (sub64 e ni)) as [nm|]; [apply T; exact HH|reflexivity]. }
  apply (L (N.to_nat num) fuel (gw 16 0) sec0 t0 0 0).
  - lia.
  - change (gw 16 0) with 0. lia.
  - exact HnH.
Qed.
