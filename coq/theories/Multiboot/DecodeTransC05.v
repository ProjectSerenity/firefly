(** Composition of the two translation ties that meet at multiboot.VisitElfSections:
    C05 (Vmm/KernelTrans.v): setupPDTForKernel, translated, hands its section-visitor closure to visitElfSectionsFn; the
        tie models that as [gvisit closure sections] over "the (flags, address, size) triples the visitor function
        delivers" and takes them to be the non-empty entries of the model's section table ([K.nonempty secs]);
    C10 (Multiboot/DecodeTransElf.v): VisitElfSections, translated, calls its visitor exactly for the non-empty sections of
        the block's first ELF tag, in order; each call is an event carrying name, flags, address, size.
    Here: the triples carried by those events ARE [K.nonempty (block_secs mb)], the non-empty entries of the block's section
    table, so the regenerated setupPDTForKernel run over what the regenerated VisitElfSections presents is the model's
    [setup_kernel] over the block's section table. *)
From Coq Require Import String NArith List Bool Lia.
From FF Require Import Lib.Word Lib.GoOps Gen.Consts_multiboot Gen.Trans_multiboot Multiboot.Model Multiboot.Spec
  Multiboot.DecodeTrans Multiboot.DecodeTransElf Multiboot.DecodeTransBlock.
From FF Require Gen.Consts_mm_vmm Gen.Trans_vmm_kernel Vmm.Pt Vmm.KernelTrans Vmm.PdtTrans Vmm.MapTrans.
Module VP := FF.Vmm.Pt.
Module K := FF.Vmm.KernelTrans.
Module PT := FF.Vmm.PdtTrans.
Module MT := FF.Vmm.MapTrans.
Import ListNotations.
Local Open Scope N_scope.

(** what the closure of setupPDTForKernel receives from a call: flags, address, size (the name is ignored: `_ string`) *)
Definition sec3_of (s : section) : VP.section := (sec_flags s, sec_addr s, sec_size s).

(** the section table of the block's first ELF tag, as the C05 model sees a section table (empty sections included) *)
Definition hdr3 (h : sec_hdr) : VP.section := (h_flags h mod two32, h_addr h, h_size h).
Definition block_secs (mb : mbinfo) : list VP.section :=
  match first_tag sel_elf (mb_tags mb) with
  | Some (_, _, secs) => map hdr3 secs
  | None => []
  end.

(** the triples delivered by the visitor calls recorded on a trace (most recent first), in call order *)
Definition triple_of_event (c : gcall) : option VP.section :=
  match c with
  | GCall _ [GBytes _; GNum f; GNum a; GNum z] => Some (f, a, z)
  | _ => None
  end.
Definition delivered (tr : list gcall) : list VP.section := somes (map triple_of_event (rev tr)).

Lemma delivered_events (X : list section) : delivered (rev (map ev_section X)) = map sec3_of X.
Proof.
  unfold delivered. rewrite rev_involutive. induction X as [|s X IH]; [reflexivity|].
  cbn [map somes triple_of_event ev_section]. f_equal. exact IH.
Qed.

(** the sections VisitElfSections reports = the non-empty entries of the section table *)
Lemma nonempty_block_secs (strtab : list N) (mb : mbinfo) :
  map sec3_of (expected_sections strtab mb) = K.nonempty (block_secs mb).
Proof.
  unfold expected_sections, block_secs. destruct (first_tag sel_elf (mb_tags mb)) as [[[en sh] secs]|]; [|reflexivity].
  unfold K.nonempty. induction secs as [|h secs IH]; [reflexivity|].
  cbn [map filter]. unfold section_of at 1. unfold hdr3 at 1. cbn [snd].
  destruct (h_size h =? 0); cbn [negb somes map]; [exact IH|]. rewrite IH. reflexivity.
Qed.

Lemma first_tag_wf {A} (sel : tag -> option A) sa st ts x :
  Forall (tagpad_wf sa st) ts -> first_tag sel ts = Some x -> exists t, tag_wf sa st t /\ sel t = Some x.
Proof.
  induction ts as [|[t pad] ts IH]; intros H E; [discriminate|]. inversion H as [|? ? Htp Hts]; subst. cbn [first_tag] in E.
  destruct (sel t) as [y|] eqn:Es.
  - injection E as <-. exists t. split; [exact (proj1 Htp)|exact Es].
  - exact (IH Hts E).
Qed.

(** addresses and sizes of a well-formed block's section table are 64-bit: a hypothesis of the C05 tie *)
Lemma block_secs_ok sa st mb : mbinfo_wf sa st mb -> Forall K.sec_ok (block_secs mb).
Proof.
  intros [_ [Ht _]]. unfold block_secs. destruct (first_tag sel_elf (mb_tags mb)) as [[[en sh] secs]|] eqn:E; [|constructor].
  destruct (first_tag_wf sel_elf _ _ _ _ Ht E) as [t [Hw Hs]]. destruct t; try discriminate. injection Hs as -> -> ->.
  cbn [tag_wf] in Hw. destruct Hw as [_ [_ [_ [Hsecs _]]]]. clear E.
  induction Hsecs as [|h secs Hh Hr IH]; [constructor|]. cbn [map]. constructor; [|exact IH].
  unfold hdr3, K.sec_ok. destruct Hh as [_ [_ [_ [Ha [_ [Hz _]]]]]]. split; assumption.
Qed.

(** the C05 model and its traced version look at the non-empty entries only *)
Lemma nonempty_idem (secs : list VP.section) : K.nonempty (K.nonempty secs) = K.nonempty secs.
Proof.
  unfold K.nonempty. induction secs as [|x secs IH]; [reflexivity|]. cbn [filter].
  destruct (negb (snd x =? 0)) eqn:E; [|exact IH]. cbn [filter]. rewrite E, IH. reflexivity.
Qed.

Lemma setup_tr_nonempty off secs s tr0 : K.setup_kernel_tr off (K.nonempty secs) s tr0 = K.setup_kernel_tr off secs s tr0.
Proof. unfold K.setup_kernel_tr. rewrite nonempty_idem. reflexivity. Qed.

(** the composed statement.  The fuel condition of the C05 tie ([K.fuel_ok]) ranges over the MAPPED sections only
    (non-empty and at or above the kernel offset): for an empty section at address 0 - the null section every ELF
    table starts with - the page count `size - 1` would wrap to 2^52 *)
Theorem setupPDT_through_visitElfSections (l : layout) (mb : mbinfo) (fuel : nat)
        (off : N) (s : VP.st) (tr0 : list gcall) (kfuel : nat) :
  mbinfo_wf (l_saddr l) (l_strtab l) mb -> layout_wf l (encode mb) ->
  (find_fuel (mem_of l (encode mb)) <= fuel)%nat -> (S (total_len (mem_of l (encode mb))) <= fuel)%nat -> 65536 <= N.of_nat fuel ->
  off < two64 -> VP.last s < two64 -> K.fuel_ok kfuel off (block_secs mb) s ->
  exists tr : list gcall,
    (* (1) the regenerated VisitElfSections on the block: no fault, memory untouched, visitor calls [tr] *)
    go_multiboot_VisitElfSections mld fuel (mkw [] (mem_of l (encode mb))) (l_info l) = GOk (mkw tr (mem_of l (encode mb)), tt) /\
    (* (2) what these calls deliver = the non-empty entries of the block's section table *)
    delivered tr = K.nonempty (block_secs mb) /\
    (* (3) the regenerated setupPDTForKernel over exactly what was delivered = the model over the section table *)
    Trans_vmm_kernel.go_vmm_setupPDTForKernel kfuel (Trans_vmm_kernel.mk_go_vmm_world tr0 s) off
        K.o_kactivate K.o_kinit K.o_kmap MT.o_alloc K.o_translate (delivered tr) =
      match K.setup_kernel_tr off (block_secs mb) s tr0 with
      | None => GPanic
      | Some (s', e, tr') => GOk (Trans_vmm_kernel.mk_go_vmm_world tr' s', PT.err_of e)
      end /\
    match K.setup_kernel_tr off (block_secs mb) s tr0 with
    | None => VP.Stray
    | Some (s', e, _) => VP.Ok (s', e)
    end = VP.setup_kernel off (block_secs mb) s.
Proof.
  intros Hwf Hlw Hff Hfs Hfn Hoff Hlast Hfuel.
  exists (rev (map ev_section (expected_sections (l_strtab l) mb)) ++ []).
  assert (Hd : delivered (rev (map ev_section (expected_sections (l_strtab l) mb)) ++ []) = K.nonempty (block_secs mb)).
  { rewrite app_nil_r, delivered_events. apply nonempty_block_secs. }
  split; [exact (visitElfSections_on_block l mb [] fuel Hwf Hlw Hff Hfs Hfn)|].
  split; [exact Hd|]. split.
  - rewrite Hd.
    exact (K.setup_kernel_is_translation off (block_secs mb) s tr0 kfuel Hoff Hlast (block_secs_ok _ _ _ Hwf) Hfuel).
  - exact (K.setup_kernel_tr_model off (block_secs mb) s tr0).
Qed.
