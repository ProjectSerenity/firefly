(** Corollaries of the decoder theorems: tag-order irrelevance, absent tags. *)
From Coq Require Import NArith ZArith List Bool Lia Arith.
From Coq Require Import ZifyBool ZifyN ZifyNat.
From FF Require Import Lib.Word Gen.Consts_multiboot Multiboot.Model Multiboot.Spec Multiboot.MemLemmas
  Multiboot.FindProofs Multiboot.MemMapProofs Multiboot.FbProofs Multiboot.CmdProofs Multiboot.ElfProofs.
Import ListNotations.
Local Open Scope N_scope.

Lemma tag_order_irrelevant (l l' : layout) (mb mb' : mbinfo) (cont : N -> region -> bool) (fuel : nat) :
  mbinfo_wf (l_saddr l) (l_strtab l) mb -> layout_wf l (encode mb) ->
  mbinfo_wf (l_saddr l') (l_strtab l') mb' -> layout_wf l' (encode mb') ->
  l_strtab l = l_strtab l' ->
  first_tag sel_memmap (mb_tags mb) = first_tag sel_memmap (mb_tags mb') ->
  first_tag sel_fb (mb_tags mb) = first_tag sel_fb (mb_tags mb') ->
  first_tag sel_cmd (mb_tags mb) = first_tag sel_cmd (mb_tags mb') ->
  first_tag sel_elf (mb_tags mb) = first_tag sel_elf (mb_tags mb') ->
  (length (expected_regions mb) < fuel)%nat ->
  let m := mem_of l (encode mb) in
  let m' := mem_of l' (encode mb') in
  snd (fst (visit_mem_regions fuel cont m (l_info l))) = snd (fst (visit_mem_regions fuel cont m' (l_info l'))) /\
  snd (visit_mem_regions fuel cont m (l_info l)) = Ok tt /\
  snd (visit_mem_regions fuel cont m' (l_info l')) = Ok tt /\
  framebuffer m (l_info l) = framebuffer m' (l_info l') /\
  get_boot_cmdline m (l_info l) = get_boot_cmdline m' (l_info l') /\
  visit_elf_sections m (l_info l) = visit_elf_sections m' (l_info l').
Proof.
  intros W L W' L' Hst Hm Hf Hc He Hfuel m m'. subst m m'.
  assert (Hr : expected_regions mb = expected_regions mb') by (unfold expected_regions; rewrite Hm; reflexivity).
  destruct (visit_mem_regions_encode l mb cont fuel W L Hfuel) as [b [_ E1]].
  destruct (visit_mem_regions_encode l' mb' cont fuel W' L') as [b' [_ E2]]; [rewrite <- Hr; exact Hfuel|].
  rewrite E1, E2. cbn [fst snd]. rewrite Hr.
  rewrite (framebuffer_encode l mb W L), (framebuffer_encode l' mb' W' L').
  rewrite (get_boot_cmdline_encode l mb W L), (get_boot_cmdline_encode l' mb' W' L').
  rewrite (visit_elf_sections_encode l mb W L), (visit_elf_sections_encode l' mb' W' L').
  unfold expected_fb, expected_cmdline, expected_sections. rewrite Hf, Hc, He, Hst. auto 10.
Qed.

Lemma absent_tags (l : layout) (mb : mbinfo) (cont : N -> region -> bool) (fuel : nat) :
  mbinfo_wf (l_saddr l) (l_strtab l) mb -> layout_wf l (encode mb) ->
  let m := mem_of l (encode mb) in
  (first_tag sel_memmap (mb_tags mb) = None -> visit_mem_regions fuel cont m (l_info l) = (m, [], Ok tt)) /\
  (first_tag sel_fb (mb_tags mb) = None -> framebuffer m (l_info l) = Ok None) /\
  (first_tag sel_cmd (mb_tags mb) = None -> get_boot_cmdline m (l_info l) = Ok []) /\
  (first_tag sel_elf (mb_tags mb) = None -> visit_elf_sections m (l_info l) = ([], Ok tt)).
Proof.
  intros W L m. subst m. repeat split; intros Hn.
  - unfold visit_mem_regions.
    pose proof (find_first_tag sel_memmap mb_tagMemoryMap l mb W L ltac:(discriminate) (sel_memmap_type _ _)) as H.
    rewrite Hn in H. rewrite H. reflexivity.
  - rewrite (framebuffer_encode l mb W L). unfold expected_fb. rewrite Hn. reflexivity.
  - rewrite (get_boot_cmdline_encode l mb W L). unfold expected_cmdline. rewrite Hn. reflexivity.
  - rewrite (visit_elf_sections_encode l mb W L). unfold expected_sections. rewrite Hn. reflexivity.
Qed.

Lemma norm_type_spec t : norm_type t = (if (1 <=? t) && (t <=? 4) then t else mb_MemReserved).
Proof.
  unfold norm_type, mb_MemAvailable, mb_MemReserved, mb_MemAcpiReclaimable, mb_MemNvs.
  destruct (N.eqb_spec t 1), (N.eqb_spec t 2), (N.eqb_spec t 3), (N.eqb_spec t 4); cbn [orb];
    destruct (N.leb_spec 1 t), (N.leb_spec t 4); cbn [andb]; lia.
Qed.
