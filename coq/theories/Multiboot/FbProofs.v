(** GetFramebufferInfo + the fields read through the returned pointer + RGBColorInfo on an
    encoded block: exactly the first framebuffer tag; no stray access. *)
From Coq Require Import NArith ZArith List Bool Lia Arith.
From Coq Require Import ZifyBool ZifyN ZifyNat.
From FF Require Import Lib.Word Gen.Consts_multiboot Multiboot.Model Multiboot.Spec Multiboot.MemLemmas Multiboot.FindProofs.
Import ListNotations.
Local Open Scope N_scope.

Section Each.
  Variable l : layout.
  Variable block : list N.
  Hypothesis Hlay : lay_ok l block.

  Lemma rd_each_seq cs : forall s o rest,
    sub_at block (o + N.of_nat s) (cs ++ rest) ->
    rd_each (mem_of l block) (l_info l + o) (map N.of_nat (seq s (length cs))) = Ok cs.
  Proof.
    pose proof (lay_ok_end _ _ Hlay) as Hend.
    induction cs as [|c cs IH]; intros s o rest Hsub; [reflexivity|].
    cbn [length seq map rd_each].
    assert (Hb := sub_at_bound _ _ _ Hsub). rewrite len_app, len_cons in Hb.
    rewrite padd_small by lia. rewrite <- N.add_assoc.
    change ((c :: cs) ++ rest) with ([c] ++ (cs ++ rest)) in Hsub.
    rewrite (rd_blk_byte l block Hlay _ c (sub_at_app_l _ _ _ _ Hsub)).
    cbn [bind].
    apply sub_at_app_r in Hsub. change (len [c]) with 1 in Hsub.
    replace (o + N.of_nat s + 1) with (o + N.of_nat (S s)) in Hsub by (rewrite Nat2N.inj_succ; lia).
    rewrite (IH (S s) o rest Hsub). reflexivity.
  Qed.
End Each.

Lemma len_enc_fb f : len (enc_fb f) = 24 + len (t_color f).
Proof. unfold enc_fb. rewrite !len_app, len_le64, !len_le32, len_le16. change (len [t_bpp f; t_type f]) with 2. lia. Qed.

Lemma length_firstn_len (c : list N) n : N.of_nat n <= len c -> length (firstn n c) = n.
Proof. intros H. apply firstn_length_le. unfold len in H. lia. Qed.

Lemma read_fb_encode (l : layout) (block : list N) (o : N) (f : fbtag) :
  lay_ok l block -> sub_at block o (enc_fb f) -> fb_wf f ->
  read_fb (mem_of l block) (l_info l + o) =
    Ok (mkFb (t_addr f) (t_pitch f) (t_width f) (t_height f) (t_bpp f) (t_type f)
             (if t_type f =? mb_FramebufferTypeRGB then Some (firstn 6 (t_color f)) else None)).
Proof.
  intros Hlay Hsub [Ha [Hp [Hw [Hh [Hb [Ht [Hr [Hc Hrgb]]]]]]]].
  pose proof (lay_ok_end _ _ Hlay) as Hend.
  assert (Hbound := sub_at_bound _ _ _ Hsub). rewrite len_enc_fb in Hbound.
  unfold read_fb, mb_off_FramebufferInfo_PhysAddr, mb_off_FramebufferInfo_Pitch, mb_off_FramebufferInfo_Width,
    mb_off_FramebufferInfo_Height, mb_off_FramebufferInfo_Bpp, mb_off_FramebufferInfo_Type, mb_off_FramebufferInfo_colorInfo.
  rewrite !padd_small by lia. rewrite N.add_0_r. rewrite <- !N.add_assoc.
  unfold enc_fb in Hsub.
  rewrite (rd_blk64 l block Hlay o _ (sub_at_app_l _ _ _ _ Hsub) Ha). cbn [bind].
  apply sub_at_app_r in Hsub. rewrite len_le64 in Hsub.
  rewrite (rd_blk32 l block Hlay _ _ (sub_at_app_l _ _ _ _ Hsub) Hp). cbn [bind].
  apply sub_at_app_r in Hsub. rewrite len_le32 in Hsub. replace (o + 8 + 4) with (o + 12) in Hsub by lia.
  rewrite (rd_blk32 l block Hlay _ _ (sub_at_app_l _ _ _ _ Hsub) Hw). cbn [bind].
  apply sub_at_app_r in Hsub. rewrite len_le32 in Hsub. replace (o + 12 + 4) with (o + 16) in Hsub by lia.
  rewrite (rd_blk32 l block Hlay _ _ (sub_at_app_l _ _ _ _ Hsub) Hh). cbn [bind].
  apply sub_at_app_r in Hsub. rewrite len_le32 in Hsub. replace (o + 16 + 4) with (o + 20) in Hsub by lia.
  change ([t_bpp f; t_type f] ++ le16 (t_reserved f) ++ t_color f)
    with ([t_bpp f] ++ [t_type f] ++ le16 (t_reserved f) ++ t_color f) in Hsub.
  rewrite (rd_blk_byte l block Hlay _ _ (sub_at_app_l _ _ _ _ Hsub)). cbn [bind].
  apply sub_at_app_r in Hsub. change (len [t_bpp f]) with 1 in Hsub. replace (o + 20 + 1) with (o + 21) in Hsub by lia.
  rewrite (rd_blk_byte l block Hlay _ _ (sub_at_app_l _ _ _ _ Hsub)). cbn [bind].
  destruct (t_type f =? mb_FramebufferTypeRGB) eqn:Et; [|reflexivity].
  apply N.eqb_eq in Et. specialize (Hrgb Et).
  apply sub_at_app_r in Hsub. change (len [t_type f]) with 1 in Hsub.
  apply sub_at_app_r in Hsub. rewrite len_le16 in Hsub. replace (o + 21 + 1 + 2) with (o + 24 + N.of_nat 0) in Hsub by lia.
  rewrite <- (firstn_skipn 6 (t_color f)) in Hsub.
  change rgb_offsets with (map N.of_nat (seq 0 6)).
  assert (Hl6 : length (firstn 6 (t_color f)) = 6%nat) by (apply length_firstn_len; exact Hrgb).
  replace (map N.of_nat (seq 0 6)) with (map N.of_nat (seq 0 (length (firstn 6 (t_color f))))) by (rewrite Hl6; reflexivity).
  rewrite (rd_each_seq l block Hlay _ 0 (o + 24) _ Hsub). reflexivity.
Qed.

(** GetFramebufferInfo + field reads on an encoded well-formed block *)
Lemma framebuffer_encode (l : layout) (mb : mbinfo) :
  mbinfo_wf (l_saddr l) (l_strtab l) mb -> layout_wf l (encode mb) ->
  framebuffer (mem_of l (encode mb)) (l_info l) = Ok (expected_fb mb).
Proof.
  intros Hwf Hlw. pose proof (layout_wf_ok _ _ Hlw) as Hlay.
  unfold framebuffer, get_framebuffer_info.
  pose proof (find_first_tag sel_fb mb_tagFramebufferInfo l mb Hwf Hlw ltac:(discriminate) (sel_fb_type _ _)) as Hfirst.
  destruct Hwf as [Hr [Hts Hsm]].
  unfold expected_fb.
  destruct (first_tag sel_fb (mb_tags mb)) as [f|].
  - destruct Hfirst as (o' & t & -> & Hsel & Hsub & Htw).
    destruct t; try discriminate. cbn [sel_fb] in Hsel. injection Hsel as ->.
    cbn [tag_wf payload] in *. cbn [bind].
    replace (len (enc_fb f) =? 0) with false by (rewrite len_enc_fb; lia).
    cbn [bind]. rewrite <- N.add_assoc. rewrite (read_fb_encode l (encode mb) (o' + 8) f Hlay Hsub Htw).
    reflexivity.
  - rewrite Hfirst. reflexivity.
Qed.
