(** VisitElfSections on an encoded block: every non-empty section of the first ELF tag with its
    NUL-terminated name from the string table, flags, address, size; no stray access. *)
From Coq Require Import NArith ZArith List Bool Lia Arith.
From Coq Require Import ZifyBool ZifyN ZifyNat.
From FF Require Import Lib.Word Gen.Consts_multiboot Multiboot.Model Multiboot.Spec Multiboot.MemLemmas Multiboot.FindProofs.
Import ListNotations.
Local Open Scope N_scope.

Lemma len_enc_sec h : len (enc_sec h) = 64.
Proof. unfold enc_sec. rewrite !len_app, !len_le64, !len_le32. reflexivity. Qed.

Lemma len_flat_secs secs : len (flat_map enc_sec secs) = N.of_nat (length secs) * 64.
Proof.
  induction secs as [|h secs IH]; [reflexivity|]. cbn [flat_map length]. rewrite len_app, len_enc_sec, IH. lia.
Qed.

Lemma nth_sub secs : forall k h, nth_error secs k = Some h ->
  sub_at (flat_map enc_sec secs) (N.of_nat k * 64) (enc_sec h).
Proof.
  induction secs as [|h0 secs IH]; intros k h Hn; [destruct k; discriminate|].
  destruct k as [|k]; cbn [nth_error] in Hn.
  - injection Hn as ->. cbn [flat_map]. exists [], (flat_map enc_sec secs). split; reflexivity.
  - cbn [flat_map]. specialize (IH k h Hn).
    pose proof (sub_at_refl (enc_sec h0 ++ flat_map enc_sec secs)) as H. apply sub_at_app_r in H.
    pose proof (sub_at_trans _ _ _ _ _ H IH) as H'. rewrite len_enc_sec in H'.
    replace (N.of_nat (S k) * 64) with (0 + 64 + N.of_nat k * 64) by lia. exact H'.
Qed.

Lemma sec_fields b o h : sub_at b o (enc_sec h) ->
  sub_at b o (le32 (h_name h)) /\ sub_at b (o + 8) (le64 (h_flags h)) /\
  sub_at b (o + 16) (le64 (h_addr h)) /\ sub_at b (o + 32) (le64 (h_size h)).
Proof.
  unfold enc_sec. intros H.
  destruct (sub_at_fld _ _ _ _ _ H) as [Hname H1]. destruct (sub_at_fld _ _ _ _ _ H1) as [_ H2].
  destruct (sub_at_fld _ _ _ _ _ H2) as [Hflags H3]. destruct (sub_at_fld _ _ _ _ _ H3) as [Haddr H4].
  destruct (sub_at_fld _ _ _ _ _ H4) as [_ H5]. destruct (sub_at_fld _ _ _ _ _ H5) as [Hsize _].
  split; [exact Hname|]. split; [|split].
  - replace (o + 8) with (o + N.of_nat 4 + N.of_nat 4) by lia. exact Hflags.
  - replace (o + 16) with (o + N.of_nat 4 + N.of_nat 4 + N.of_nat 8) by lia. exact Haddr.
  - replace (o + 32) with (o + N.of_nat 4 + N.of_nat 4 + N.of_nat 8 + N.of_nat 8 + N.of_nat 8) by lia. exact Hsize.
Qed.

(** ---- NUL-terminated strings ---- *)
Definition nonzero (s : text) : Prop := Forall (fun c => c <> 0) s.

Lemma until_nul_spec l s : until_nul l = Some s -> exists r, l = s ++ 0 :: r /\ nonzero s.
Proof.
  revert s. induction l as [|c l IH]; intros s H; [discriminate|].
  cbn [until_nul] in H. destruct (N.eqb_spec c 0) as [->|Hc].
  - injection H as <-. exists l. split; [reflexivity | constructor].
  - destruct (until_nul l) as [s'|]; [|discriminate]. injection H as <-.
    destruct (IH s' eq_refl) as [r [-> Hs]]. exists r. split; [reflexivity | constructor; assumption].
Qed.

Lemma cstr_at_spec strtab i s : cstr_at strtab i = Some s -> sub_at strtab i (s ++ [0]) /\ nonzero s.
Proof.
  unfold cstr_at. destruct (i <? len strtab) eqn:Hi; [|discriminate]. intros H.
  destruct (until_nul_spec _ _ H) as [r [Hr Hs]]. split; [|exact Hs].
  exists (firstn (N.to_nat i) strtab), r. split.
  - rewrite <- (firstn_skipn (N.to_nat i) strtab) at 1. rewrite Hr. rewrite <- app_assoc. reflexivity.
  - unfold len. rewrite firstn_length_le by (unfold len in Hi; lia). lia.
Qed.

Section Elf.
  Variable l : layout.
  Variable block : list N.
  Hypothesis Hlay : lay_ok l block.
  Variable strhdr : N.
  Hypothesis Hstrhdr : rd (mem_of l block) (padd strhdr mb_off_elfSection64_address) 8 = Ok (l_saddr l).

  Lemma name_scan_ok s : forall i fuel,
    sub_at (l_strtab l) i (s ++ [0]) -> nonzero s -> (length s < fuel)%nat ->
    name_scan fuel (mem_of l block) strhdr i = Ok (i + len s).
  Proof.
    pose proof (lay_ok_str_end _ _ Hlay) as Hsend.
    induction s as [|c s IH]; intros i fuel Hsub Hnz Hfuel.
    - destruct fuel as [|fuel]; [cbn in Hfuel; lia|].
      cbn [name_scan]. rewrite Hstrhdr. cbn [bind].
      assert (Hb := sub_at_bound _ _ _ Hsub). cbn [app] in Hb. change (len [0]) with 1 in Hb.
      rewrite padd_small by lia.
      rewrite (rd_str_byte l block Hlay i 0 Hsub). cbn [bind N.eqb]. rewrite len_nil, N.add_0_r. reflexivity.
    - destruct fuel as [|fuel]; [cbn in Hfuel; lia|].
      inversion Hnz as [|? ? Hc Hnz']; subst.
      cbn [name_scan]. rewrite Hstrhdr. cbn [bind].
      assert (Hb := sub_at_bound _ _ _ Hsub). rewrite len_app, len_cons in Hb. change (len [0]) with 1 in Hb.
      rewrite padd_small by lia.
      change ((c :: s) ++ [0]) with ([c] ++ (s ++ [0])) in Hsub.
      rewrite (rd_str_byte l block Hlay i c (sub_at_app_l _ _ _ _ Hsub)). cbn [bind].
      replace (c =? 0) with false by lia.
      apply sub_at_app_r in Hsub. change (len [c]) with 1 in Hsub.
      rewrite w64_small by lia.
      rewrite (IH (i + 1) fuel Hsub Hnz') by (cbn [length] in Hfuel; lia).
      rewrite len_cons. f_equal. lia.
  Qed.

  Lemma read_section_ok o h :
    sub_at block o (enc_sec h) -> sec_wf h ->
    (h_size h <> 0 -> cstr_at (l_strtab l) (h_name h) <> None) ->
    read_section (mem_of l block) strhdr (l_info l + o) = Ok (section_of (l_strtab l) h).
  Proof.
    intros Hsub [Hn [Hty [Hfl [Had [Hof [Hsz _]]]]]] Hname.
    pose proof (lay_ok_end _ _ Hlay) as Hend.
    pose proof (lay_ok_str_end _ _ Hlay) as Hsend.
    assert (Hb := sub_at_bound _ _ _ Hsub). rewrite len_enc_sec in Hb.
    unfold read_section, section_of, mb_off_elfSection64_size, mb_off_elfSection64_nameIndex,
      mb_off_elfSection64_flags.
    rewrite !padd_small by lia. rewrite N.add_0_r. rewrite <- !N.add_assoc.
    destruct (sec_fields _ _ _ Hsub) as (H0 & H8 & H16 & H32).
    rewrite (rd_blk64 l block Hlay _ _ H32 Hsz). cbn [bind].
    destruct (h_size h =? 0) eqn:Ez; [reflexivity|].
    apply N.eqb_neq in Ez. specialize (Hname Ez).
    destruct (cstr_at (l_strtab l) (h_name h)) as [s|] eqn:Hs; [|contradiction].
    destruct (cstr_at_spec _ _ _ Hs) as [Hsubs Hnz].
    rewrite (rd_blk32 l block Hlay _ _ H0 Hn). cbn [bind].
    assert (Hbs := sub_at_bound _ _ _ Hsubs). rewrite len_app in Hbs. change (len [0]) with 1 in Hbs.
    rewrite (name_scan_ok s (h_name h) _ Hsubs Hnz).
    2:{ unfold mem_of, total_len. cbn [fold_right s_data]. rewrite !app_length. unfold len in Hbs. lia. }
    cbn [bind]. rewrite Hstrhdr. cbn [bind].
    replace (sub64 (h_name h + len s) (h_name h)) with (len s).
    2:{ unfold sub64. rewrite (w64_small (h_name h)) by (rewrite two64_val, two32_val in *; lia).
        unfold w64. rewrite two64_val in *. lia. }
    unfold mb_off_elfSection64_address. rewrite !padd_small by lia. rewrite <- !N.add_assoc.
    destruct (len s =? 0) eqn:El.
    - apply N.eqb_eq in El. destruct s; [|rewrite len_cons in El; lia]. cbn [bind].
      rewrite (rd_blk64 l block Hlay _ _ H8 Hfl). cbn [bind].
      rewrite (rd_blk64 l block Hlay _ _ H16 Had). cbn [bind]. reflexivity.
    - apply N.eqb_neq in El.
      rewrite (rd_str l block Hlay _ _ (sub_at_app_l _ _ _ _ Hsubs)) by lia. cbn [bind].
      rewrite (rd_blk64 l block Hlay _ _ H8 Hfl). cbn [bind].
      rewrite (rd_blk64 l block Hlay _ _ H16 Had). cbn [bind]. reflexivity.
  Qed.

  Lemma visit_elf_loop_ok secs : forall o,
    sub_at block o (flat_map enc_sec secs) -> Forall sec_wf secs ->
    Forall (fun h => h_size h <> 0 -> cstr_at (l_strtab l) (h_name h) <> None) secs ->
    visit_elf_loop (length secs) (mem_of l block) strhdr (l_info l + o) =
      (somes (map (section_of (l_strtab l)) secs), Ok tt).
  Proof.
    pose proof (lay_ok_end _ _ Hlay) as Hend.
    induction secs as [|h secs IH]; intros o Hsub Hwf Hnames; [reflexivity|].
    cbn [length visit_elf_loop map somes flat_map] in *.
    assert (Hb := sub_at_bound _ _ _ Hsub). rewrite len_app, len_enc_sec in Hb.
    rewrite (read_section_ok o h (sub_at_app_l _ _ _ _ Hsub) (Forall_inv Hwf) (Forall_inv Hnames)).
    unfold mb_sizeof_elfSection64. rewrite padd_small by lia. rewrite <- N.add_assoc.
    apply sub_at_app_r in Hsub. rewrite len_enc_sec in Hsub.
    rewrite (IH (o + 64) Hsub (Forall_inv_tail Hwf) (Forall_inv_tail Hnames)).
    destruct (section_of (l_strtab l) h); reflexivity.
  Qed.
End Elf.

(** VisitElfSections on an encoded well-formed block *)
Lemma visit_elf_sections_encode (l : layout) (mb : mbinfo) :
  mbinfo_wf (l_saddr l) (l_strtab l) mb -> layout_wf l (encode mb) ->
  visit_elf_sections (mem_of l (encode mb)) (l_info l) = (expected_sections (l_strtab l) mb, Ok tt).
Proof.
  intros Hwf Hlw. pose proof (layout_wf_ok _ _ Hlw) as Hlay.
  pose proof two16_val as T16. pose proof two32_val as T32. pose proof two64_val as T64.
  unfold visit_elf_sections.
  pose proof (find_first_tag sel_elf mb_tagElfSymbols l mb Hwf Hlw ltac:(discriminate) (sel_elf_type _ _)) as Hfirst.
  destruct Hwf as [Hr [Hts Hsm]].
  unfold expected_sections.
  destruct (first_tag sel_elf (mb_tags mb)) as [[[en sh] secs]|].
  - destruct Hfirst as (o' & t & -> & Hsel & Hsub & Htw).
    destruct t; try discriminate. cbn [sel_elf] in Hsel. injection Hsel as -> -> ->.
    cbn [tag_wf payload] in *.
    destruct Htw as [Hsh [Hnum [Hent [Hsecs [[hs [Hnth Hsaddr]] Hnames]]]]].
    pose proof (lay_ok_end _ _ Hlay) as Hend.
    assert (Hb := sub_at_bound _ _ _ Hsub). rewrite !len_app, !len_le32, len_flat_secs in Hb.
    replace (len (le32 (N.of_nat (length secs)) ++ le32 en ++ le32 sh ++ flat_map enc_sec secs) =? 0) with false
      by (rewrite !len_app, !len_le32; lia).
    unfold mb_off_elfSections_strtabSectionIndex, mb_off_elfSections_sectionData, mb_off_elfSections_numSections.
    rewrite !padd_small by lia. rewrite N.add_0_r. rewrite <- !N.add_assoc.
    (* pieces of the payload *)
    assert (Hnumsub : sub_at (encode mb) (o' + 8) (le16 (N.of_nat (length secs)))).
    { pose proof (sub_at_app_l _ _ _ _ Hsub) as H. rewrite (le32_low16 _ Hnum) in H. apply (sub_at_app_l _ _ _ _ H). }
    pose proof Hsub as H. apply sub_at_app_r in H. rewrite len_le32 in H.
    apply sub_at_app_r in H. rewrite len_le32 in H. replace (o' + 8 + 4 + 4) with (o' + 8 + 8) in H by lia.
    assert (Hshsub : sub_at (encode mb) (o' + 8 + 8) (le32 sh)) by (apply (sub_at_app_l _ _ _ _ H)).
    apply sub_at_app_r in H. rewrite len_le32 in H. replace (o' + 8 + 8 + 4) with (o' + 8 + 12) in H by lia.
    replace (o' + (8 + 8)) with (o' + 8 + 8) by lia.
    rewrite (rd_blk32 l (encode mb) Hlay _ _ Hshsub Hsh).
    replace (o' + (8 + 0)) with (o' + 8) by lia. replace (o' + (8 + 12)) with (o' + 8 + 12) by lia.
    rewrite (rd_blk16 l (encode mb) Hlay _ _ Hnumsub Hnum).
    rewrite Nat2N.id.
    (* the string-table section header *)
    assert (Hshlt : (N.to_nat sh < length secs)%nat) by (apply nth_error_Some; rewrite Hnth; discriminate).
    pose proof (nth_sub secs _ _ Hnth) as Hhs. rewrite N2Nat.id in Hhs.
    pose proof (sub_at_trans _ _ _ _ _ H Hhs) as Hhs'.
    assert (Hstr : rd (mem_of l (encode mb))
                      (padd (padd (l_info l + (o' + 8 + 12)) (w64 (sh * mb_sizeof_elfSection64))) mb_off_elfSection64_address) 8
                   = Ok (l_saddr l)).
    { unfold mb_sizeof_elfSection64, mb_off_elfSection64_address.
      rewrite w64_small by lia.
      assert (Hbh := sub_at_bound _ _ _ Hhs'). rewrite len_enc_sec in Hbh.
      rewrite (padd_small (l_info l + (o' + 8 + 12)) (sh * 64)) by lia.
      rewrite padd_small by lia. rewrite <- !N.add_assoc.
      destruct (sec_fields _ _ _ Hhs') as (_ & _ & Haddr & _).
      replace (o' + (8 + (12 + (sh * 64 + 16)))) with (o' + 8 + 12 + sh * 64 + 16) by lia.
      rewrite <- Hsaddr. apply (rd_blk64 l (encode mb) Hlay _ _ Haddr).
      pose proof (nth_error_In _ _ Hnth) as Hin. rewrite Forall_forall in Hsecs. apply (Hsecs hs Hin). }
    apply (visit_elf_loop_ok l (encode mb) Hlay _ Hstr secs (o' + 8 + 12) H Hsecs Hnames).
  - rewrite Hfirst. reflexivity.
Qed.
