(** The block after VisitMemRegions is the encoding of [after_visit cont mb], which is again well
    formed and reports the same content: the decoders can be run in any order, any number of times. *)
From Coq Require Import NArith ZArith List Bool Lia Arith.
From Coq Require Import ZifyBool ZifyN ZifyNat.
From FF Require Import Lib.Word Gen.Consts_multiboot Multiboot.Model Multiboot.Spec Multiboot.MemLemmas Multiboot.FindProofs
  Multiboot.MemMapProofs Multiboot.FbProofs Multiboot.CmdProofs Multiboot.ElfProofs Multiboot.AfterVisit.
Import ListNotations.
Local Open Scope N_scope.

(** ---- normalised entries ---- *)
Lemma norm_type_idem t : norm_type (norm_type t) = norm_type t.
Proof.
  unfold norm_type, mb_MemAvailable, mb_MemReserved, mb_MemAcpiReclaimable, mb_MemNvs.
  destruct (N.eqb_spec t 1), (N.eqb_spec t 2), (N.eqb_spec t 3), (N.eqb_spec t 4); subst; reflexivity.
Qed.

Lemma region_of_norm e : region_of (norm_entry e) = region_of e.
Proof. unfold region_of, norm_entry. cbn [e_addr e_len e_type]. rewrite norm_type_idem. reflexivity. Qed.

Lemma norm_entry_wf esz e : entry_wf esz e -> entry_wf esz (norm_entry e).
Proof.
  intros [Ha [Hl [Ht [Hb Hn]]]]. unfold entry_wf, norm_entry. cbn [e_addr e_len e_type e_tail].
  repeat split; try assumption. apply norm_type_lt. exact Ht.
Qed.

Lemma norm_visited_wf cont esz es : forall idx,
  Forall (entry_wf esz) es -> Forall (entry_wf esz) (norm_visited cont idx es).
Proof.
  induction es as [|e es IH]; intros idx H; [constructor|].
  cbn [norm_visited]. constructor; [apply norm_entry_wf; apply (Forall_inv H)|].
  destruct (cont idx (region_of e)); [apply IH|]; apply (Forall_inv_tail H).
Qed.

Lemma regions_norm_visited cont es : forall idx,
  map region_of (norm_visited cont idx es) = map region_of es.
Proof.
  induction es as [|e es IH]; intros idx; [reflexivity|].
  cbn [norm_visited map]. rewrite region_of_norm. f_equal.
  destruct (cont idx (region_of e)); [apply IH | reflexivity].
Qed.

(** ---- replacing the entries of the first memory-map tag ---- *)
Lemma set_first_same tags : forall esz ever es,
  first_tag sel_memmap tags = Some (esz, ever, es) -> set_first_memmap es tags = tags.
Proof.
  induction tags as [|[t pad] tags IH]; intros esz ever es H; [discriminate|].
  cbn [first_tag] in H. destruct t; cbn [sel_memmap set_first_memmap] in *;
    try (rewrite (IH _ _ _ H); reflexivity).
  injection H as -> -> ->. reflexivity.
Qed.

Lemma first_memmap_set tags : forall esz ever es es',
  first_tag sel_memmap tags = Some (esz, ever, es) ->
  first_tag sel_memmap (set_first_memmap es' tags) = Some (esz, ever, es').
Proof.
  induction tags as [|[t pad] tags IH]; intros esz ever es es' H; [discriminate|].
  cbn [first_tag] in H. destruct t; cbn [sel_memmap set_first_memmap first_tag] in *;
    try (apply (IH _ _ _ _ H)).
  injection H as -> -> ->. reflexivity.
Qed.

Lemma first_other_set {A : Type} (sel : tag -> option A) es' tags :
  (forall esz ever es, sel (TMemMap esz ever es) = None) ->
  first_tag sel (set_first_memmap es' tags) = first_tag sel tags.
Proof.
  intros Hsel. induction tags as [|[t pad] tags IH]; [reflexivity|].
  destruct t; cbn [set_first_memmap first_tag]; try (rewrite IH; reflexivity).
  rewrite !Hsel. reflexivity.
Qed.

Lemma body_split sa st tags : forall o esz ever es,
  Forall (tagpad_wf sa st) tags -> first_tag sel_memmap tags = Some (esz, ever, es) ->
  exists P Q o',
    locate mb_tagMemoryMap tags o = Some (o', TMemMap esz ever es) /\ o' + 8 = o + len P /\
    forall es', len (flat_map enc_entry es') = len (flat_map enc_entry es) ->
      flat_map enc_tag (set_first_memmap es' tags) =
        P ++ le32 esz ++ le32 ever ++ flat_map enc_entry es' ++ Q.
Proof.
  induction tags as [|[t pad] tags IH]; intros o esz ever es Hwf H; [discriminate|].
  pose proof (Forall_inv Hwf) as Htp. pose proof (Forall_inv_tail Hwf) as Hwf'.
  cbn [first_tag] in H.
  destruct (sel_memmap t) as [[[esz0 ever0] es0]|] eqn:Es.
  - destruct t; try discriminate. cbn [sel_memmap] in Es. injection Es as -> -> ->. injection H as -> -> ->.
    exists (le32 mb_tagMemoryMap ++ le32 (8 + len (le32 esz ++ le32 ever ++ flat_map enc_entry es))),
           (pad ++ flat_map enc_tag tags), o.
    split; [reflexivity|]. split; [rewrite len_app, !len_le32; lia|].
    intros es' Hlen. cbn [set_first_memmap flat_map]. unfold enc_tag. cbn [fst snd tag_type payload].
    replace (len (le32 esz ++ le32 ever ++ flat_map enc_entry es')) with (len (le32 esz ++ le32 ever ++ flat_map enc_entry es))
      by (rewrite !len_app, Hlen; reflexivity).
    repeat rewrite <- app_assoc. reflexivity.
  - destruct Htp as [Ht _]. cbn [fst] in Ht.
    assert (Hty : tag_type t =? mb_tagMemoryMap = false).
    { destruct (N.eqb_spec (tag_type t) mb_tagMemoryMap) as [E|]; [|reflexivity].
      apply (sel_memmap_type _ _ _ Ht) in E. contradiction. }
    destruct (IH (o + tag_span (t, pad)) esz ever es Hwf' H) as [P [Q [o' [Hloc [Ho Hall]]]]].
    exists (enc_tag (t, pad) ++ P), Q, o'. split; [|split].
    + cbn [locate fst]. rewrite Hty. exact Hloc.
    + rewrite len_app, len_enc_tag. lia.
    + intros es' Hlen. specialize (Hall es' Hlen).
      assert (Hset : set_first_memmap es' ((t, pad) :: tags) = (t, pad) :: set_first_memmap es' tags)
        by (destruct t; try reflexivity; discriminate).
      rewrite Hset. cbn [flat_map]. rewrite Hall. rewrite <- app_assoc. reflexivity.
Qed.

Lemma set_first_wf sa st tags : forall esz ever es es',
  Forall (tagpad_wf sa st) tags -> first_tag sel_memmap tags = Some (esz, ever, es) ->
  Forall (entry_wf esz) es' -> len (flat_map enc_entry es') = len (flat_map enc_entry es) ->
  Forall (tagpad_wf sa st) (set_first_memmap es' tags).
Proof.
  induction tags as [|[t pad] tags IH]; intros esz ever es es' Hwf H Hes' Hlen; [constructor|].
  pose proof (Forall_inv Hwf) as Htp. pose proof (Forall_inv_tail Hwf) as Hwf'.
  cbn [first_tag] in H.
  destruct t; cbn [sel_memmap set_first_memmap] in *;
    try (constructor; [exact Htp | apply (IH _ _ _ _ Hwf' H Hes' Hlen)]).
  injection H as -> -> ->. constructor; [|exact Hwf'].
  destruct Htp as [[H24 [Hesz [Hever _]]] [Hpb Hpl]]. cbn [fst snd] in *.
  split; [|split; [exact Hpb|]].
  - cbn [tag_wf]. repeat split; assumption.
  - cbn [fst snd payload] in *. rewrite Hpl. rewrite !len_app, Hlen. reflexivity.
Qed.

Lemma len_encode_eq r tags tags' :
  len (flat_map enc_tag tags') = len (flat_map enc_tag tags) ->
  len (encode (mkMb r tags')) = len (encode (mkMb r tags)).
Proof. intros H. unfold encode, enc_body. cbn [mb_tags mb_reserved]. rewrite !len_app, !len_le32, H. reflexivity. Qed.

Section After.
  Variable l : layout.
  Variable mb : mbinfo.
  Variable cont : N -> region -> bool.
  Hypothesis Hwf : mbinfo_wf (l_saddr l) (l_strtab l) mb.
  Hypothesis Hlw : layout_wf l (encode mb).

  Lemma after_visit_split :
    forall esz ever es, first_tag sel_memmap (mb_tags mb) = Some (esz, ever, es) ->
    exists X Y o',
      locate mb_tagMemoryMap (mb_tags mb) 8 = Some (o', TMemMap esz ever es) /\ o' + 8 = len X /\
      encode mb = X ++ le32 esz ++ le32 ever ++ flat_map enc_entry es ++ Y /\
      encode (after_visit cont mb) = X ++ le32 esz ++ le32 ever ++ flat_map enc_entry (norm_visited cont 0 es) ++ Y.
  Proof.
    intros esz ever es Hfirst. destruct Hwf as [_ [Hts _]].
    destruct (body_split _ _ (mb_tags mb) 8 esz ever es Hts Hfirst) as [P [Q [o' [Hloc [Ho Hall]]]]].
    pose proof (Hall es eq_refl) as H1. rewrite (set_first_same _ _ _ _ Hfirst) in H1.
    pose proof (Hall (norm_visited cont 0 es) (len_flat_norm cont es 0)) as H2.
    exists (le32 (8 + len (enc_body mb)) ++ le32 (mb_reserved mb) ++ P), (Q ++ end_tag), o'.
    split; [exact Hloc|]. split; [rewrite !len_app, !len_le32; lia|]. split.
    - unfold encode at 1. unfold enc_body at 2. rewrite H1. repeat rewrite <- app_assoc. reflexivity.
    - unfold after_visit. rewrite Hfirst. unfold encode, enc_body. cbn [mb_tags mb_reserved]. rewrite H2, H1.
      rewrite !len_app, (len_flat_norm cont es 0). repeat rewrite <- app_assoc. reflexivity.
  Qed.

  Lemma len_encode_after : len (encode (after_visit cont mb)) = len (encode mb).
  Proof.
    unfold after_visit. destruct (first_tag sel_memmap (mb_tags mb)) as [[[esz ever] es]|] eqn:Hfirst; [|reflexivity].
    destruct (after_visit_split esz ever es Hfirst) as [X [Y [o' [_ [_ [H1 H2]]]]]].
    unfold after_visit in H2. rewrite Hfirst in H2. rewrite H1, H2.
    rewrite !len_app, (len_flat_norm cont es 0). reflexivity.
  Qed.

  (** the information block after the scan is again a well-formed block, at the same place *)
  Lemma after_visit_wf :
    mbinfo_wf (l_saddr l) (l_strtab l) (after_visit cont mb) /\ layout_wf l (encode (after_visit cont mb)).
  Proof.
    pose proof len_encode_after as Hlen. split.
    - destruct Hwf as [Hr [Hts Hsm]]. unfold mbinfo_wf. rewrite Hlen. split; [|split; [|exact Hsm]].
      + unfold after_visit. destruct (first_tag sel_memmap (mb_tags mb)) as [[[? ?] ?]|]; exact Hr.
      + unfold after_visit. destruct (first_tag sel_memmap (mb_tags mb)) as [[[esz ever] es]|] eqn:Hfirst; [|exact Hts].
        cbn [mb_tags]. apply (set_first_wf _ _ _ esz ever es _ Hts Hfirst); [|apply len_flat_norm].
        apply norm_visited_wf.
        pose proof (find_first_tag sel_memmap mb_tagMemoryMap l mb Hwf Hlw ltac:(discriminate) (sel_memmap_type _ _)) as Hf.
        rewrite Hfirst in Hf. destruct Hf as (o' & t & _ & Hsel & _ & Htw).
        destruct t; try discriminate. cbn [sel_memmap] in Hsel. injection Hsel as -> -> ->. apply Htw.
    - unfold layout_wf in *. rewrite Hlen. exact Hlw.
  Qed.

  (** ... that reports the same content *)
  Lemma after_visit_same :
    expected_regions (after_visit cont mb) = expected_regions mb /\
    expected_fb (after_visit cont mb) = expected_fb mb /\
    expected_cmdline (after_visit cont mb) = expected_cmdline mb /\
    expected_sections (l_strtab l) (after_visit cont mb) = expected_sections (l_strtab l) mb.
  Proof.
    unfold expected_regions, expected_fb, expected_cmdline, expected_sections, after_visit.
    destruct (first_tag sel_memmap (mb_tags mb)) as [[[esz ever] es]|] eqn:Hfirst; [|rewrite Hfirst; auto].
    cbn [mb_tags]. rewrite (first_memmap_set _ _ _ _ _ Hfirst).
    rewrite !first_other_set by reflexivity. rewrite regions_norm_visited. auto.
  Qed.

  (** VisitMemRegions leaves exactly that block in memory *)
  Lemma visit_mem_regions_after (fuel : nat) :
    (length (expected_regions mb) < fuel)%nat ->
    visit_mem_regions fuel cont (mem_of l (encode mb)) (l_info l) =
      (mem_of l (encode (after_visit cont mb)), visited cont 0 (expected_regions mb), Ok tt).
  Proof.
    intros Hfuel. pose proof (layout_wf_ok _ _ Hlw) as Hlay.
    unfold visit_mem_regions. rewrite (find_tag_encode l mb _ Hwf Hlw) by discriminate.
    unfold expected_regions in *.
    destruct (first_tag sel_memmap (mb_tags mb)) as [[[esz ever] es]|] eqn:Hfirst.
    - destruct (after_visit_split esz ever es Hfirst) as [X [Y [o' [Hloc [Ho [H1 H2]]]]]].
      rewrite Hloc. cbn [payload].
      destruct Hwf as [Hr [Hts Hsm]].
      destruct (locate_sub (encode mb) _ _ (mb_tags mb) 8 _ o' _ end_tag (sub_at_body mb) Hts Hloc) as [Hsub [Htw _]].
      cbn [tag_wf] in Htw. destruct Htw as [H24 [Hesz [Hever Hes]]].
      assert (Hb := sub_at_bound _ _ _ Hsub). cbn [payload] in Hb. rewrite !len_app, !len_le32 in Hb.
      pose proof (lay_ok_end _ _ Hlay) as Hend.
      replace (len (le32 esz ++ le32 ever ++ flat_map enc_entry es) =? 0) with false
        by (rewrite !len_app, !len_le32; lia).
      rewrite H2. rewrite H1 in Hlay |- *.
      rewrite map_length in Hfuel.
      replace (l_info l + o' + 8) with (l_info l + len X) by lia.
      apply (visit_loop_strong l cont esz X Y Hesz H24 es (le32 ever) 0 fuel _ _ Hlay Hes Hfuel).
      + unfold mb_sizeof_mmapHeader. rewrite padd_small by lia. rewrite len_le32. lia.
      + unfold mb_sizeof_mmapHeader. rewrite !padd_small by (rewrite ?len_app, ?len_le32; lia).
        rewrite !len_app, !len_le32. lia.
    - destruct Hwf as [Hr [Hts Hsm]].
      pose proof (locate_first sel_memmap _ _ mb_tagMemoryMap (mb_tags mb) (sel_memmap_type _ _) Hts 8) as Hf.
      rewrite Hfirst in Hf. rewrite Hf. unfold after_visit. rewrite Hfirst. reflexivity.
  Qed.
End After.

(** the decoders run AFTER a region scan (on the memory it leaves behind) report the same content;
    this is the sequence the correspondence harness runs *)
Lemma decoders_after_visit (l : layout) (mb : mbinfo) (cont cont' : N -> region -> bool) (fuel : nat) :
  mbinfo_wf (l_saddr l) (l_strtab l) mb -> layout_wf l (encode mb) ->
  (length (expected_regions mb) < fuel)%nat ->
  let m1 := fst (fst (visit_mem_regions fuel cont (mem_of l (encode mb)) (l_info l))) in
  snd (fst (visit_mem_regions fuel cont' m1 (l_info l))) = visited cont' 0 (expected_regions mb) /\
  snd (visit_mem_regions fuel cont' m1 (l_info l)) = Ok tt /\
  framebuffer m1 (l_info l) = Ok (expected_fb mb) /\
  get_boot_cmdline m1 (l_info l) = Ok (expected_cmdline mb) /\
  visit_elf_sections m1 (l_info l) = (expected_sections (l_strtab l) mb, Ok tt).
Proof.
  intros W L Hfuel m1. subst m1.
  rewrite (visit_mem_regions_after l mb cont W L fuel Hfuel). cbn [fst snd].
  destruct (after_visit_wf l mb cont W L) as [W1 L1].
  destruct (after_visit_same l mb cont) as [E1 [E2 [E3 E4]]].
  rewrite (visit_mem_regions_after l (after_visit cont mb) cont' W1 L1 fuel) by (rewrite E1; exact Hfuel).
  cbn [fst snd]. rewrite E1.
  rewrite (FbProofs.framebuffer_encode l _ W1 L1), (CmdProofs.get_boot_cmdline_encode l _ W1 L1),
    (ElfProofs.visit_elf_sections_encode l _ W1 L1).
  rewrite E2, E3, E4. auto.
Qed.
